(* Limits/Spec.v -- property C14: what "a length is representable" means for
   every length-taking API, written from the wire formats (RFC 791, 8200, 768,
   9293, 4443, 4302, 826, IEEE 802.1AE), never from the constants of the code.

   A wire field of `bits` bits holds exactly the values x < 2^bits.  For each
   API this file gives
     * the predicate  R v  "length v can be written into the field(s)",
     * the closed form of the greatest such v (computed from the field width
       and the header size; shown to be the greatest element in Proofs.v),
     * the decoder that recovers the length from the field value,
     * the kind of value an error has to name,
   and the shape of statement every API has to satisfy (c14_new / c14_set /
   c14_gen). *)
From EP Require Import Base.Bytes.
Local Open Scope N_scope.

(* ---------------------------------------------------------------- fields *)
Definition fits (bits x : N) : Prop := x < 2 ^ bits.
Definition field_max (bits : N) : N := 2 ^ bits - 1.

(* m is the greatest value satisfying P *)
Definition greatest (P : N -> Prop) (m : N) : Prop := P m /\ forall v, P v -> v <= m.
Definition least (P : N -> Prop) (m : N) : Prop := P m /\ forall v, P v -> m <= v.

(* the machine word the lengths arrive in (64-bit target, see DESIGN 2.1) *)
Definition usize_ok (v : N) : Prop := v < 2 ^ 64.
(* the length of a Rust slice never exceeds isize::MAX *)
Definition slice_len_ok (v : N) : Prop := v < 2 ^ 63.

(* ------------------------------------------------------------ error data *)
Inductive vkind :=
| Ipv4PayloadLength | Ipv6PayloadLength
| UdpPayloadLengthIpv4 | UdpPayloadLengthIpv6
| TcpPayloadLengthIpv4 | TcpPayloadLengthIpv6
| Icmpv6PayloadLength | MacsecShortLen.

Record vtb := mk_vtb { actual : N; max_allowed : N; vtype : vkind }.

(* outcome of a call: Panic also stands for undefined behaviour (site >= 900) *)
Inductive res (E A : Type) :=
| Ok (a : A) | Err (e : E) | Panic (site : N).
Arguments Ok {E A} a.
Arguments Err {E A} e.
Arguments Panic {E A} site.

(* ---- C14 for a constructor / pure function: outcome r for length v ----
   R representable, mx stated maximum, k value kind, good: what an accepted
   result has to satisfy (the stored field decodes to v). *)
Definition c14_new {A} (r : res vtb A) (v : N) (R : N -> Prop) (mx : N) (k : vkind)
           (good : A -> Prop) : Prop :=
  greatest R mx /\
  ((exists a, r = Ok a) <-> R v) /\
  (R v -> exists a, r = Ok a /\ good a) /\
  (~ R v -> r = Err (mk_vtb v mx k)).

(* ---- C14 for a setter on header h: outcome and header afterwards ---- *)
Definition c14_set {H} (r : res vtb unit * H) (h : H) (v : N) (R : N -> Prop) (mx : N)
           (k : vkind) (good : H -> Prop) : Prop :=
  greatest R mx /\
  (fst r = Ok tt <-> R v) /\
  (R v -> fst r = Ok tt /\ good (snd r)) /\
  (~ R v -> r = (Err (mk_vtb v mx k), h)).

(* ---- the same with an API specific error type; `bad v` is the error the
   documentation of the API promises for a non representable v ---- *)
Definition c14_gen {E A} (r : res E A) (v : N) (R : N -> Prop) (bad : N -> E)
           (good : A -> Prop) : Prop :=
  ((exists a, r = Ok a) <-> R v) /\
  (R v -> exists a, r = Ok a /\ good a) /\
  (~ R v -> r = Err (bad v)).
Definition c14_gen_set {E H} (r : res E unit * H) (h : H) (v : N) (R : N -> Prop)
           (bad : N -> E) (good : H -> Prop) : Prop :=
  (fst r = Ok tt <-> R v) /\
  (R v -> fst r = Ok tt /\ good (snd r)) /\
  (~ R v -> r = (Err (bad v), h)).

(* ------------------------------------------------------------------ IPv4 *)
(* RFC 791: IHL (4 bit) = header length in 32-bit words, 5 words are fixed;
   Total Length (16 bit) = header + data in octets. *)
Definition ipv4_fixed : N := 5 * 4.
Definition ipv4_hdr_len (opts : N) : N := ipv4_fixed + opts.
Definition ipv4_opts_repr (o : N) : Prop := o mod 4 = 0 /\ fits 4 (ipv4_hdr_len o / 4).
Definition ipv4_opts_max : N := field_max 4 * 4 - ipv4_fixed.
Definition ipv4_opts_dec (ihl : N) : N := ihl * 4 - ipv4_fixed.

Definition ipv4_repr (opts v : N) : Prop := fits 16 (ipv4_hdr_len opts + v).
Definition ipv4_max (opts : N) : N := field_max 16 - ipv4_hdr_len opts.
Definition ipv4_dec (opts total_len : N) : N := total_len - ipv4_hdr_len opts.

(* IpHeaders: the extension headers (AH) count as IPv4 payload *)
Definition iph4_repr (opts exts v : N) : Prop := fits 16 (ipv4_hdr_len opts + exts + v).
Definition iph4_max (opts exts : N) : N := field_max 16 - ipv4_hdr_len opts - exts.
Definition iph4_dec (opts exts total_len : N) : N := total_len - ipv4_hdr_len opts - exts.

(* ------------------------------------------------------------------ IPv6 *)
(* RFC 8200: Payload Length (16 bit) = everything after the fixed header,
   extension headers included. *)
Definition ipv6_repr (v : N) : Prop := fits 16 v.
Definition ipv6_max : N := field_max 16.
Definition iph6_repr (exts v : N) : Prop := fits 16 (exts + v).
Definition iph6_max (exts : N) : N := field_max 16 - exts.
Definition iph6_dec (exts payload_length : N) : N := payload_length - exts.

(* ------------------------------------------------------------------- UDP *)
(* RFC 768: Length (16 bit) = header (8 octets) + data.  RFC 8200 8.1: the
   pseudo header carries a 32-bit upper-layer packet length. *)
Definition udp_hdr : N := 8.
Definition udp_repr (v : N) : Prop := fits 16 (udp_hdr + v).
Definition udp_max : N := field_max 16 - udp_hdr.
Definition udp_dec (length : N) : N := length - udp_hdr.
Definition udp6_pseudo_repr (v : N) : Prop := fits 32 (udp_hdr + v).
Definition udp6_pseudo_max : N := field_max 32 - udp_hdr.

(* ------------------------------------------------------------------- TCP *)
(* RFC 9293: data offset (4 bit) in 32-bit words, 5 words fixed; the TCP
   length of the pseudo header: 16 bit over IPv4, 32 bit over IPv6. *)
Definition tcp_fixed : N := 5 * 4.
Definition tcp_hdr_len (opts : N) : N := tcp_fixed + opts.
Definition pad4 (n : N) : N := (n + 3) / 4 * 4.
Definition tcp_opts_repr (n : N) : Prop := fits 4 (tcp_hdr_len (pad4 n) / 4).
Definition tcp_opts_max : N := field_max 4 * 4 - tcp_fixed.
Definition tcp_opts_dec (data_offset : N) : N := data_offset * 4 - tcp_fixed.
Definition tcp4_repr (hdr v : N) : Prop := fits 16 (hdr + v).
Definition tcp4_max (hdr : N) : N := field_max 16 - hdr.
Definition tcp6_repr (hdr v : N) : Prop := fits 32 (hdr + v).
Definition tcp6_max (hdr : N) : N := field_max 32 - hdr.

(* total encoded size of a list of option elements *)
Definition nsum (l : list N) : N := fold_right N.add 0 l.

(* ---------------------------------------------------------------- ICMPv6 *)
(* RFC 4443 2.3 / RFC 8200 8.1: 32-bit upper-layer packet length = 8 octets
   of ICMPv6 header + data *)
Definition icmp6_hdr : N := 8.
Definition icmp6_repr (v : N) : Prop := fits 32 (icmp6_hdr + v).
Definition icmp6_max : N := field_max 32 - icmp6_hdr.

(* ---------------------------------------------------------------- MACsec *)
(* SecTAG short length: 6 bit.  It counts the octets after the SecTAG; when
   the payload is unmodified these start with the 2 octets of the ether type.
   The crate documents the value 0 as "unknown": it is what has to be stored
   when the length is not representable. *)
Definition macsec_sl (unmodified : bool) (v : N) : N := v + (if unmodified then 2 else 0).
Definition macsec_repr (unmodified : bool) (v : N) : Prop := fits 6 (macsec_sl unmodified v).
Definition macsec_max (unmodified : bool) : N := field_max 6 - (if unmodified then 2 else 0).
Definition macsec_unknown : N := 0.
(* decoder: None = unknown *)
Definition macsec_dec (unmodified : bool) (field : N) : option N :=
  if field =? macsec_unknown then None
  else if unmodified then (if field <? 2 then None else Some (field - 2))
  else Some field.

(* MACsec's set_payload_len has no error: C14 for it reads "the field holds the
   length when representable, the documented unknown value otherwise, nothing
   else changes, and the field decodes back to the length" *)
Definition c14_macsec {H} (r : res vtb unit * H) (u : bool) (v : N)
           (field wire : H -> N) (decoded : H -> option N) (others_same : H -> Prop) : Prop :=
  greatest (macsec_repr u) (macsec_max u) /\
  fst r = Ok tt /\ others_same (snd r) /\
  (macsec_repr u v -> field (snd r) = macsec_sl u v) /\
  (~ macsec_repr u v -> field (snd r) = macsec_unknown) /\
  wire (snd r) = field (snd r) /\
  decoded (snd r) = macsec_dec u (wire (snd r)) /\
  (macsec_repr u v -> macsec_sl u v <> macsec_unknown -> decoded (snd r) = Some v).

(* -------------------------------------------------------------------- AH *)
(* RFC 4302: Payload Len (8 bit) = length of the AH in 32-bit words minus 2;
   12 octets are fixed, the ICV follows. *)
Definition ah_fixed : N := 12.
Definition ah_repr (icv : N) : Prop := icv mod 4 = 0 /\ fits 8 ((ah_fixed + icv) / 4 - 2).
Definition ah_max : N := (field_max 8 + 2) * 4 - ah_fixed.
Definition ah_dec (payload_len : N) : N := (payload_len + 2) * 4 - ah_fixed.
Inductive icv_err := IcvTooBig (n : N) | IcvUnaligned (n : N).
Definition ah_bad (n : N) : icv_err := if ah_max <? n then IcvTooBig n else IcvUnaligned n.

(* ---------------------------------------------- IPv6 extension (generic) *)
(* RFC 8200 4.3: Hdr Ext Len (8 bit) = length of the header in 8-octet units
   not counting the first 8; 2 octets (next header, length) precede the data. *)
Definition ext_repr (p : N) : Prop :=
  (2 + p) mod 8 = 0 /\ 8 <= 2 + p /\ fits 8 ((2 + p) / 8 - 1).
Definition ext_min : N := 8 - 2.
Definition ext_max : N := (field_max 8 + 1) * 8 - 2.
Definition ext_dec (hdr_ext_len : N) : N := (hdr_ext_len + 1) * 8 - 2.
Inductive ext_err := ExtTooSmall (n : N) | ExtTooBig (n : N) | ExtUnaligned (n : N).
Definition ext_bad (n : N) : ext_err :=
  if n <? ext_min then ExtTooSmall n else if ext_max <? n then ExtTooBig n else ExtUnaligned n.

(* ------------------------------------- lengths of extension header chains *)
(* length of an AH from its Payload Len field, of a generic extension header
   from its Hdr Ext Len field; the fragment header has 8 octets (RFC 8200 4.5) *)
Definition ah_total_len (payload_len : N) : N := (payload_len + 2) * 4.
Definition ext_total_len (hdr_ext_len : N) : N := (hdr_ext_len + 1) * 8.
Definition frag_total_len : N := 8.

(* which extension headers a header set carries.  The crate stores for an AH
   `raw_icv_len` = Payload Len - 1 and for a generic header Hdr Ext Len (u8). *)
Definition v4exts := option N.                         (* auth: raw_icv_len *)
Record v6exts := {
  x_hop : option N; x_dst : option N;
  x_route : option (N * option N);       (* routing, final destination options *)
  x_frag : bool; x_auth : option N }.
Definition olen (f : N -> N) (o : option N) : N := match o with Some l => f l | None => 0 end.
Definition v4x_len (x : v4exts) : N := olen (fun l => ah_total_len (l + 1)) x.
Definition v6x_len (x : v6exts) : N :=
  olen ext_total_len (x_hop x) + olen ext_total_len (x_dst x)
  + match x_route x with Some (r, f) => ext_total_len r + olen ext_total_len f | None => 0 end
  + (if x_frag x then frag_total_len else 0)
  + olen (fun l => ah_total_len (l + 1)) (x_auth x).
(* the length fields are bytes *)
Definition o8 (o : option N) : Prop := match o with Some l => l < 256 | None => True end.
Definition v4exts_wf (x : v4exts) : Prop := o8 x.
Definition v6exts_wf (x : v6exts) : Prop :=
  o8 (x_hop x) /\ o8 (x_dst x) /\
  (match x_route x with Some (r, f) => r < 256 /\ o8 f | None => True end) /\ o8 (x_auth x).

(* ------------------------------------------------------------------- ARP *)
(* RFC 826: hardware / protocol address length, 8 bit each; sender and
   target address have that same length *)
Definition arp_repr (n : N) : Prop := fits 8 n.
Definition arp_max : N := field_max 8.

(* ---------------------------------------------------------------- builder *)
(* PacketBuilder: ip header + extensions + transport header + payload *)
Definition build4_repr (opts exts transport v : N) : Prop :=
  fits 16 (ipv4_hdr_len opts + exts + transport + v).
Definition build4_max (opts exts transport : N) : N :=
  field_max 16 - ipv4_hdr_len opts - exts - transport.
Definition build6_repr (exts transport v : N) : Prop := fits 16 (exts + transport + v).
Definition build6_max (exts transport : N) : N := field_max 16 - exts - transport.

(* ------------------------------------------------------- wire encoding *)
(* a 16 / 32 bit big-endian field as it stands in the serialised header *)
Definition wire16 (bs : bytes) : option N :=
  match bs with [a; b] => Some (be16 a b) | _ => None end.
Definition wire32 (bs : bytes) : option N :=
  match bs with [a; b; c; d] => Some (be32 a b c d) | _ => None end.

(* ------------------------------------------------- executable deciders *)
(* used by the runner to evaluate the specification on every case; each is
   shown equivalent to its predicate in Proofs.v (deciders_spec) *)
Definition fitsb (bits x : N) : bool := x <? 2 ^ bits.
Definition ipv4_opts_reprb (o : N) : bool := (o mod 4 =? 0) && fitsb 4 (ipv4_hdr_len o / 4).
Definition ipv4_reprb (opts v : N) : bool := fitsb 16 (ipv4_hdr_len opts + v).
Definition iph4_reprb (opts exts v : N) : bool := fitsb 16 (ipv4_hdr_len opts + exts + v).
Definition ipv6_reprb (v : N) : bool := fitsb 16 v.
Definition iph6_reprb (exts v : N) : bool := fitsb 16 (exts + v).
Definition udp_reprb (v : N) : bool := fitsb 16 (udp_hdr + v).
Definition udp6_pseudo_reprb (v : N) : bool := fitsb 32 (udp_hdr + v).
Definition tcp_opts_reprb (n : N) : bool := fitsb 4 (tcp_hdr_len (pad4 n) / 4).
Definition tcp4_reprb (hdr v : N) : bool := fitsb 16 (hdr + v).
Definition tcp6_reprb (hdr v : N) : bool := fitsb 32 (hdr + v).
Definition icmp6_reprb (v : N) : bool := fitsb 32 (icmp6_hdr + v).
Definition macsec_reprb (u : bool) (v : N) : bool := fitsb 6 (macsec_sl u v).
Definition ah_reprb (icv : N) : bool := (icv mod 4 =? 0) && fitsb 8 ((ah_fixed + icv) / 4 - 2).
Definition ext_reprb (p : N) : bool :=
  ((2 + p) mod 8 =? 0) && (8 <=? 2 + p) && fitsb 8 ((2 + p) / 8 - 1).
Definition arp_reprb (n : N) : bool := fitsb 8 n.
Definition build4_reprb (opts exts transport v : N) : bool :=
  fitsb 16 (ipv4_hdr_len opts + exts + transport + v).
Definition build6_reprb (exts transport v : N) : bool := fitsb 16 (exts + transport + v).
