(* Limits/BuildSize.v -- property C14: PacketBuilder `size()` (`final_size`:
   link + vlan + net + transport + payload_size on usize, 64 bit) for arbitrary arguments:
     build_size_exact    for ALL arguments: Ok s exactly when s is the mathematical sum and
                         the sum is below 2^64; otherwise a debug overflow panic (one of the
                         three additions); never an Err;
     build_size_bounds   under the bounds the Rust types give (header lengths far below 2^32,
                         TCP options <= 40 / ICMPv4 header <= 20, a slice length < 2^63) the
                         sum always fits: the result is Ok;
     build_size_ipv4/6   the same with `net` spelled out as the IP header + extension
                         header lengths of well-formed header values. *)
From Coq Require Import ZArith Lia.
From EP Require Import Base.Bytes Limits.Spec Limits.Model Limits.Proofs.
Local Open Scope N_scope.

(* once one of the three additions overflows, so does the whole sum *)
Lemma size_panic site sum : USIZE <= sum -> site = 193 \/ site = 194 \/ site = 195 ->
  (forall s, Panic (E:=build_err) site = Ok s <-> s = sum /\ sum < USIZE) /\
  (USIZE <= sum <->
     exists site', Panic (E:=build_err) (A:=N) site = Panic site' /\
                   (site' = 193 \/ site' = 194 \/ site' = 195)) /\
  (forall e : build_err, Panic (A:=N) site <> Err e).
Proof.
  intros Hge Hs. split; [|split].
  - intros s. split; [discriminate | lia].
  - split; [intros _; now exists site | trivial].
  - discriminate.
Qed.

Lemma build_size_exact lv net t v :
  let sum := lv + net + transport_header_len t + v in
  (forall s, build_size lv net t v = Ok s <-> s = sum /\ sum < 2 ^ 64) /\
  (2 ^ 64 <= sum <->
     exists site, build_size lv net t v = Panic site /\ (site = 193 \/ site = 194 \/ site = 195)) /\
  (forall e, build_size lv net t v <> Err e).
Proof.
  cbv zeta. change (2 ^ 64) with USIZE. unfold build_size.
  destruct (N.lt_ge_cases (lv + net) USIZE) as [H1|H1].
  2:{ rewrite add_chk_panic by exact H1. apply size_panic; [lia | tauto]. }
  rewrite add_chk_ok by exact H1. cbn [bind].
  destruct (N.lt_ge_cases (lv + net + transport_header_len t) USIZE) as [H2|H2].
  2:{ rewrite add_chk_panic by exact H2. apply size_panic; [lia | tauto]. }
  rewrite add_chk_ok by exact H2. cbn [bind].
  destruct (N.lt_ge_cases (lv + net + transport_header_len t + v) USIZE) as [H3|H3].
  2:{ rewrite add_chk_panic by exact H3. apply size_panic; [exact H3 | tauto]. }
  rewrite add_chk_ok by exact H3. split; [|split].
  - intros s. split; [intros [= <-]; now split | now intros [-> _]].
  - split; [lia | intros [site [H _]]; discriminate].
  - discriminate.
Qed.

Lemma build_size_bounds lv net t v :
  lv < 2 ^ 32 -> net < 2 ^ 32 -> transport_wf t -> slice_len_ok v ->
  build_size lv net t v = Ok (lv + net + transport_header_len t + v).
Proof.
  intros Hlv Hnet Ht Hv. apply build_size_eq.
  pose proof (transport_len_bound t Ht) as Htl. unfold slice_len_ok in Hv. lia.
Qed.

(* link header (Ethernet II 14 / Linux SLL 16) + VLAN (0 / 4 / 8): lv <= 24 *)
Lemma build_size_ipv4 lv ip x t v :
  lv <= 24 -> ipv4_wf ip -> v4exts_wf x -> transport_wf t -> slice_len_ok v ->
  build_size lv (ipv4_header_len ip + v4exts_header_len x) t v =
    Ok (lv + (ipv4_header_len ip + v4exts_header_len x) + transport_header_len t + v).
Proof.
  intros Hlv Hip Hx Ht Hv. apply build_size_bounds; try assumption.
  - lia.
  - rewrite v4exts_header_len_spec. pose proof (v4x_len_bound x Hx).
    unfold ipv4_header_len. unfold ipv4_wf in Hip. lia.
Qed.

Lemma build_size_ipv6 lv x t v :
  lv <= 24 -> v6exts_wf x -> transport_wf t -> slice_len_ok v ->
  build_size lv (40 + v6exts_header_len x) t v =
    Ok (lv + (40 + v6exts_header_len x) + transport_header_len t + v).
Proof.
  intros Hlv Hx Ht Hv. apply build_size_bounds; try assumption.
  - lia.
  - rewrite v6exts_header_len_spec. pose proof (v6x_len_bound x Hx). lia.
Qed.
