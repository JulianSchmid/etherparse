(* Limits/Proofs.v -- C14: every length-taking API of the model accepts exactly
   the representable lengths of Limits/Spec.v, reports (actual, true maximum,
   kind) otherwise without touching the header, and stores accepted lengths
   exactly (every `as uK` cast of the model is the identity where reached).

   Each entry point gets its normal form
       f v = if <rejection test> then Err .. else Ok <closed expression>
   (lemmas `*_eq`, one pass over the body with the `*_ok` lemmas of the checked
   operations), and its C14 statement follows from the normal form by one of
   the lemmas `c14_gen_if`, `c14_gen_set_if`, `c14_new_le`, `c14_set_le`. *)
From EP Require Import Base.Bytes Base.Lists Limits.Spec Limits.Model.
From Coq Require Import ZArith Lia ZifyN.
Local Open Scope N_scope.

(* the vocabulary of Spec.v that is plain arithmetic once unfolded *)
Create HintDb c14 discriminated.
#[local] Hint Unfold fits field_max greatest least usize_ok slice_len_ok
  ipv4_fixed ipv4_hdr_len ipv4_repr ipv4_max ipv4_dec iph4_repr iph4_max iph4_dec
  ipv6_repr ipv6_max iph6_repr iph6_max iph6_dec
  udp_hdr udp_repr udp_max udp_dec udp6_pseudo_repr udp6_pseudo_max
  tcp_fixed tcp_hdr_len tcp4_repr tcp4_max tcp6_repr tcp6_max icmp6_hdr icmp6_repr icmp6_max
  arp_repr arp_max build4_repr build4_max build6_repr build6_max : c14.
Ltac unf := autounfold with c14 in *.

Lemma as_u8_small x : x < 256 -> as_u8 x = x.
Proof. intros; unfold as_u8; now apply N.mod_small. Qed.
Lemma as_u16_small x : x < 65536 -> as_u16 x = x.
Proof. intros; unfold as_u16; now apply N.mod_small. Qed.
Lemma as_u32_small x : x < 4294967296 -> as_u32 x = x.
Proof. intros; unfold as_u32; now apply N.mod_small. Qed.

Lemma add_chk_ok {E} site m a b : a + b < m -> add_chk (E:=E) site m a b = Ok (a + b).
Proof. intros H. unfold add_chk. now rewrite (proj2 (N.ltb_lt _ _) H). Qed.
Lemma add_chk_panic {E} site m a b : m <= a + b -> add_chk (E:=E) site m a b = Panic site.
Proof. intros H. unfold add_chk. now rewrite (proj2 (N.ltb_ge _ _) H). Qed.
Lemma sub_chk_ok {E} site a b : b <= a -> sub_chk (E:=E) site a b = Ok (a - b).
Proof. intros H. unfold sub_chk. now rewrite (proj2 (N.leb_le _ _) H). Qed.
Lemma slice_to_ok {E} site size n : n <= size -> slice_to (E:=E) site size n = Ok tt.
Proof. intros H. unfold slice_to. now rewrite (proj2 (N.leb_le _ _) H). Qed.
Lemma arp_copy_ok {E} site n : n <= 255 -> arp_copy (E:=E) site n = Ok tt.
Proof. intros H. unfold arp_copy. now rewrite (proj2 (N.leb_le _ _) H). Qed.

Lemma wire16_to_be16 x : x < 65536 -> wire16 (to_be16 x) = Some x.
Proof.
  intros Hx. unfold to_be16, wire16, be16. f_equal.
  rewrite (N.mod_small (x / 256)) by (apply N.div_lt_upper_bound; lia).
  rewrite N.mul_comm. symmetry. apply N.div_mod. lia.
Qed.

Lemma fitsb_spec bits x : fitsb bits x = true <-> fits bits x.
Proof. unfold fitsb, fits. apply N.ltb_lt. Qed.

(* `rej` is the rejection test of the API *)
Lemma c14_gen_if {E A} (rej : bool) v (R : N -> Prop) (bad : N -> E) (good : A -> Prop) a :
  (rej = false <-> R v) -> (R v -> good a) ->
  c14_gen (if rej then Err (bad v) else Ok a) v R bad good.
Proof.
  intros Hb Hg. unfold c14_gen. destruct rej.
  - assert (Hn : ~ R v) by (intros HR; apply Hb in HR; discriminate).
    split; [split; [intros [x Hx]; discriminate | contradiction]|].
    split; [contradiction | reflexivity].
  - assert (HR : R v) by now apply Hb.
    split; [split; [trivial | now exists a]|].
    split; [exists a; auto | contradiction].
Qed.

Lemma c14_gen_set_if {E H} (rej : bool) (h h' : H) v (R : N -> Prop) (bad : N -> E) (good : H -> Prop) :
  (rej = false <-> R v) -> (R v -> good h') ->
  c14_gen_set (if rej then (Err (bad v), h) else (Ok tt, h')) h v R bad good.
Proof.
  intros Hb Hg. unfold c14_gen_set. destruct rej; cbn [fst snd].
  - assert (Hn : ~ R v) by (intros HR; apply Hb in HR; discriminate).
    split; [split; [discriminate | contradiction]|].
    split; [contradiction | reflexivity].
  - assert (HR : R v) by now apply Hb.
    split; [split; trivial|].
    split; [auto | contradiction].
Qed.

(* a setter that stores the result of a constructor *)
Lemma c14_gen_sbind {E A H} (r : res E A) (h : H) (upd : A -> H) v R bad
      (good : A -> Prop) (good' : H -> Prop) :
  c14_gen r v R bad good -> (forall a, good a -> good' (upd a)) ->
  c14_gen_set (sbind r h (fun a => (Ok tt, upd a))) h v R bad good'.
Proof.
  intros [Hiff [Hok Hbad]] Hup. unfold c14_gen_set. split; [split|split].
  - destruct r as [a| |]; try discriminate. intros _. apply Hiff. now exists a.
  - intros HR. destruct (Hok HR) as [a [-> _]]. reflexivity.
  - intros HR. destruct (Hok HR) as [a [-> Hg]]. cbn [sbind fst snd]. auto.
  - intros Hn. rewrite (Hbad Hn). reflexivity.
Qed.

(* Most limits are thresholds: R is "at most M" and the stated maximum mx is M. *)
Definition threshold (R : N -> Prop) (mx M : N) : Prop := (forall x, R x <-> x <= M) /\ mx = M.
Ltac thr := split; [intros ?x|]; unf; lia.

Lemma threshold_greatest R mx M : threshold R mx M -> greatest R mx.
Proof. intros [HR ->]. split; [apply HR; lia | intros v Hv; now apply HR]. Qed.

Lemma c14_new_le {A} (r : res vtb A) v R mx M k (good : A -> Prop) a :
  threshold R mx M ->
  r = (if M <? v then Err (mk_vtb v M k) else Ok a) -> (v <= M -> good a) ->
  c14_new r v R mx k good.
Proof.
  intros Ht -> Hg. split; [exact (threshold_greatest _ _ _ Ht)|]. destruct Ht as [HR ->].
  apply (c14_gen_if (M <? v) v R (fun x => mk_vtb x M k) good a).
  - rewrite N.ltb_ge. symmetry. apply HR.
  - intros Hv. apply Hg, HR, Hv.
Qed.

Lemma c14_set_le {H} (r : res vtb unit * H) (h h' : H) v R mx M k (good : H -> Prop) :
  threshold R mx M ->
  r = (if M <? v then (Err (mk_vtb v M k), h) else (Ok tt, h')) -> (v <= M -> good h') ->
  c14_set r h v R mx k good.
Proof.
  intros Ht -> Hg. split; [exact (threshold_greatest _ _ _ Ht)|]. destruct Ht as [HR ->].
  apply (c14_gen_set_if (M <? v) h h' v R (fun x => mk_vtb x M k) good).
  - rewrite N.ltb_ge. symmetry. apply HR.
  - intros Hv. apply Hg, HR, Hv.
Qed.

(* invariant of Ipv4Options (established by ipv4_options_try_from below) *)
Definition ipv4_wf (h : ipv4h) : Prop := v4_opt_len h <= 40.

Lemma ipv4_opts_repr_iff n : ipv4_opts_repr n <-> n <= 40 /\ n mod 4 = 0.
Proof.
  unfold ipv4_opts_repr. unf. split.
  - intros [Hm Hf]. split; [dmlia | exact Hm].
  - intros [Hl Hm]. split; [exact Hm | dmlia].
Qed.

Lemma ipv4_opts_greatest : greatest ipv4_opts_repr ipv4_opts_max.
Proof.
  change ipv4_opts_max with 40. split.
  - apply ipv4_opts_repr_iff. split; [lia | reflexivity].
  - intros v Hv. apply ipv4_opts_repr_iff in Hv. lia.
Qed.

Lemma ipv4_opts_reprb_spec n : ipv4_opts_reprb n = true <-> ipv4_opts_repr n.
Proof.
  unfold ipv4_opts_reprb, ipv4_opts_repr. rewrite andb_true_iff, fitsb_spec, N.eqb_eq. tauto.
Qed.

Lemma ipv4_options_try_from_eq n :
  ipv4_options_try_from n = if (40 <? n) || negb (n mod 4 =? 0) then Err n else Ok n.
Proof.
  unfold ipv4_options_try_from. rewrite (N.ltb_antisym n 40).
  destruct (N.leb_spec n 40); cbn [andb orb negb]; [|reflexivity].
  destruct (n mod 4 =? 0); cbn [negb]; [|reflexivity]. now rewrite as_u8_small by lia.
Qed.

Lemma ipv4_options_try_from_c14 n :
  c14_gen (ipv4_options_try_from n) n ipv4_opts_repr (fun bad_len => bad_len)
    (fun l => l = n /\ ipv4_opts_dec (l / 4 + 5) = n /\ fits 4 (l / 4 + 5) /\ l <= 40).
Proof.
  rewrite ipv4_options_try_from_eq. apply (c14_gen_if _ n _ (fun l => l)); rewrite ipv4_opts_repr_iff.
  - rewrite orb_false_iff, negb_false_iff, N.ltb_ge, N.eqb_eq. tauto.
  - intros [Hl Hm]. unfold ipv4_opts_dec. unf. repeat split; try lia; dmlia.
Qed.

Lemma ipv4_set_options_c14 h n :
  c14_gen_set (ipv4_set_options h n) h n ipv4_opts_repr (fun bad_len => bad_len)
    (fun h' => v4_opt_len h' = n /\ ipv4_wf h' /\
               (exists ihl, ipv4_ihl (E:=unit) h' = Ok ihl /\ fits 4 ihl /\ ipv4_opts_dec ihl = n) /\
               ipv4_header_len h' = ipv4_hdr_len n /\
               v4_total_len h' = v4_total_len h /\ v4_rest h' = v4_rest h).
Proof.
  unfold ipv4_set_options. eapply c14_gen_sbind; [apply ipv4_options_try_from_c14|].
  intros l [-> [Hdec [Hfit Hle]]].
  unfold v4_set_opts, ipv4_wf, ipv4_ihl, ipv4_header_len. cbn [v4_opt_len v4_total_len v4_rest].
  rewrite add_chk_ok by (unfold U8; dmlia). unf.
  repeat split; try lia. exists (n / 4 + 5). auto.
Qed.

Lemma ipv4_thr o : o <= 40 -> threshold (ipv4_repr o) (ipv4_max o) (65515 - o).
Proof. intros Ho. thr. Qed.

Lemma ipv4_set_payload_len_eq h v : ipv4_wf h ->
  ipv4_set_payload_len h v =
  if 65515 - v4_opt_len h <? v
  then (Err (mk_vtb v (65515 - v4_opt_len h) Ipv4PayloadLength), h)
  else (Ok tt, v4_set_total h (20 + v4_opt_len h + v)).
Proof.
  unfold ipv4_wf. intros Hwf.
  unfold ipv4_set_payload_len, ipv4_max_payload_len, ipv4_header_len. change (as_u16 20) with 20.
  rewrite sub_chk_ok by lia. cbn [bind]. rewrite sub_chk_ok by lia. cbn [sbind].
  replace (65535 - v4_opt_len h - 20) with (65515 - v4_opt_len h) by lia.
  destruct (N.ltb_spec (65515 - v4_opt_len h) v); [reflexivity|].
  rewrite add_chk_ok by (unfold USIZE; lia). cbn [sbind]. now rewrite as_u16_small by lia.
Qed.

(* what an accepted IPv4 length looks like afterwards *)
Definition ipv4_good (h : ipv4h) (extra v : N) (h' : ipv4h) : Prop :=
  v4_total_len h' = ipv4_hdr_len (v4_opt_len h) + extra + v /\
  wire16 (to_be16 (v4_total_len h')) = Some (ipv4_hdr_len (v4_opt_len h) + extra + v) /\
  ipv4_dec (v4_opt_len h) (v4_total_len h') = extra + v /\
  ipv4_payload_len h' = Some (extra + v) /\
  v4_opt_len h' = v4_opt_len h /\ v4_rest h' = v4_rest h.

Lemma ipv4_good_intro h extra v : ipv4_wf h -> extra + v <= 65515 - v4_opt_len h ->
  ipv4_good h extra v (v4_set_total h (20 + v4_opt_len h + (extra + v))).
Proof.
  unfold ipv4_wf. intros Hwf Hle.
  unfold ipv4_good, v4_set_total, ipv4_payload_len, ipv4_header_len.
  cbn [v4_total_len v4_opt_len v4_rest]. unf.
  rewrite as_u16_small by lia.
  rewrite (proj2 (N.leb_le (20 + v4_opt_len h) _)) by lia.
  replace (5 * 4 + v4_opt_len h + extra + v) with (20 + v4_opt_len h + (extra + v)) by lia.
  rewrite wire16_to_be16 by lia.
  repeat split; try lia. f_equal; lia.
Qed.

Lemma ipv4_set_payload_len_c14 h v : ipv4_wf h ->
  c14_set (ipv4_set_payload_len h v) h v (ipv4_repr (v4_opt_len h)) (ipv4_max (v4_opt_len h))
    Ipv4PayloadLength (ipv4_good h 0 v).
Proof.
  intros Hwf.
  eapply c14_set_le; [apply (ipv4_thr _ Hwf) | apply (ipv4_set_payload_len_eq _ _ Hwf) |].
  intros Hle. apply (ipv4_good_intro h 0 v Hwf Hle).
Qed.

Lemma ipv4_new_eq v rest :
  ipv4_new v rest =
  if 65515 <? v then Err (mk_vtb v 65515 Ipv4PayloadLength)
  else Ok {| v4_total_len := v + 20; v4_opt_len := 0; v4_rest := rest |}.
Proof.
  unfold ipv4_new. change (as_u16 20) with 20. cbv zeta. change (65535 - 20) with 65515.
  destruct (N.ltb_spec 65515 v); [reflexivity|]. now rewrite add_chk_ok by (unfold U16; lia).
Qed.

Lemma ipv4_new_c14 v rest :
  c14_new (ipv4_new v rest) v (ipv4_repr 0) (ipv4_max 0) Ipv4PayloadLength
    (fun h => v4_total_len h = ipv4_hdr_len 0 + v /\
              wire16 (to_be16 (v4_total_len h)) = Some (ipv4_hdr_len 0 + v) /\
              ipv4_payload_len h = Some v /\ v4_opt_len h = 0 /\ v4_rest h = rest).
Proof.
  eapply c14_new_le; [apply (ipv4_thr 0); lia | apply ipv4_new_eq |].
  change (65515 - 0) with 65515. intros Hle.
  unfold ipv4_payload_len, ipv4_header_len. cbn [v4_total_len v4_opt_len v4_rest].
  change (as_u16 (20 + 0)) with 20. change (ipv4_hdr_len 0) with 20.
  rewrite (proj2 (N.leb_le 20 (v + 20))) by lia.
  replace (20 + v) with (v + 20) by lia. rewrite wire16_to_be16 by lia.
  repeat split. f_equal. lia.
Qed.

Lemma ipv6_thr : threshold ipv6_repr ipv6_max 65535.
Proof. thr. Qed.

Definition ipv6_good (h : ipv6h) (total : N) (h' : ipv6h) : Prop :=
  v6_payload_length h' = total /\ wire16 (to_be16 (v6_payload_length h')) = Some total /\
  v6_rest h' = v6_rest h.

Lemma ipv6_set_payload_length_eq h v :
  ipv6_set_payload_length h v =
  if 65535 <? v then (Err (mk_vtb v 65535 Ipv6PayloadLength), h)
  else (Ok tt, {| v6_payload_length := v; v6_rest := v6_rest h |}).
Proof.
  unfold ipv6_set_payload_length. destruct (N.ltb_spec 65535 v); [reflexivity|].
  now rewrite as_u16_small by lia.
Qed.

Lemma ipv6_good_intro h v : v <= 65535 ->
  ipv6_good h v {| v6_payload_length := v; v6_rest := v6_rest h |}.
Proof.
  intros Hle. unfold ipv6_good. cbn [v6_payload_length v6_rest].
  repeat split. apply wire16_to_be16. lia.
Qed.

Lemma ipv6_set_payload_length_c14 h v :
  c14_set (ipv6_set_payload_length h v) h v ipv6_repr ipv6_max Ipv6PayloadLength (ipv6_good h v).
Proof.
  eapply c14_set_le; [apply ipv6_thr | apply ipv6_set_payload_length_eq | apply ipv6_good_intro].
Qed.

Lemma ah_header_len_spec l : ah_header_len l = ah_total_len (l + 1).
Proof. unfold ah_header_len, ah_total_len. lia. Qed.
Lemma rawext_header_len_spec l : rawext_header_len l = ext_total_len l.
Proof. unfold rawext_header_len, ext_total_len. lia. Qed.
Lemma v4exts_header_len_spec x : v4exts_header_len x = v4x_len x.
Proof. destruct x; [apply ah_header_len_spec | reflexivity]. Qed.

(* the model accumulates `result`; the specification sums `olen` *)
Lemma acc_olen f o r : match o with Some l => r + f l | None => r end = r + olen f o.
Proof. destruct o; cbn [olen]; lia. Qed.
Lemma olen_ext f g o : (forall l, f l = g l) -> olen f o = olen g o.
Proof. intros H. destruct o; [apply H | reflexivity]. Qed.

Lemma v6exts_header_len_spec x : v6exts_header_len x = v6x_len x.
Proof.
  destruct x as [hop dst route frag auth]. unfold v6exts_header_len, v6x_len, frag_total_len.
  cbn [x_hop x_dst x_route x_frag x_auth]. cbv zeta. rewrite !acc_olen.
  rewrite !(olen_ext _ _ _ rawext_header_len_spec), (olen_ext _ _ auth ah_header_len_spec).
  destruct route as [[r [f|]]|], frag; rewrite ?rawext_header_len_spec; cbn [olen]; lia.
Qed.

Lemma olen_ext_le o : o8 o -> olen ext_total_len o <= 2048.
Proof. destruct o; cbn; unfold ext_total_len; lia. Qed.
Lemma olen_ah_le o : o8 o -> olen (fun l => ah_total_len (l + 1)) o <= 1032.
Proof. destruct o; cbn; unfold ah_total_len; lia. Qed.

Lemma v4x_len_bound x : v4exts_wf x -> v4x_len x <= 1032.
Proof. apply olen_ah_le. Qed.
Lemma v6x_len_bound x : v6exts_wf x -> v6x_len x <= 9232.
Proof.
  destruct x as [hop dst route frag auth]. unfold v6exts_wf, v6x_len, frag_total_len.
  cbn [x_hop x_dst x_route x_frag x_auth]. intros (H1 & H2 & H3 & H4).
  apply olen_ext_le in H1, H2. apply olen_ah_le in H4.
  assert (Hr : match route with Some (r, f) => ext_total_len r + olen ext_total_len f | None => 0 end
               <= 4096).
  { destruct route as [[r f]|]; [|lia]. destruct H3 as [Hr Hf]. apply olen_ext_le in Hf.
    unfold ext_total_len at 1. lia. }
  destruct frag; lia.
Qed.

Lemma iph4_thr o e : o <= 40 -> e <= 1032 -> threshold (iph4_repr o e) (iph4_max o e) (65515 - o - e).
Proof. intros Ho He. thr. Qed.
Lemma iph6_thr e : e <= 9232 -> threshold (iph6_repr e) (iph6_max e) (65535 - e).
Proof. intros He. thr. Qed.

(* both paths of the usize addition report the same error *)
Lemma iph4_set_payload_len_eq h x v : ipv4_wf h -> v4exts_wf x ->
  iph_set_payload_len (IpV4 h x) v =
  if 65515 - v4_opt_len h - v4x_len x <? v
  then (Err (mk_vtb v (65515 - v4_opt_len h - v4x_len x) Ipv4PayloadLength), IpV4 h x)
  else (Ok tt, IpV4 (v4_set_total h (20 + v4_opt_len h + (v4x_len x + v))) x).
Proof.
  intros Hwf Hx. pose proof (v4x_len_bound x Hx) as He. pose proof Hwf as Ho. unfold ipv4_wf in Ho.
  unfold iph_set_payload_len, checked_add_usize. rewrite v4exts_header_len_spec.
  set (e := v4x_len x) in *. set (o := v4_opt_len h) in *.
  destruct (N.ltb_spec (v + e) USIZE) as [Hs|Hs].
  - rewrite (ipv4_set_payload_len_eq h (v + e) Hwf). fold o.
    destruct (N.ltb_spec (65515 - o) (v + e)), (N.ltb_spec (65515 - o - e) v); try lia;
      cbn [map_vtb max_allowed vtype].
    + unfold saturating_sub. now rewrite (proj2 (N.leb_le e (65515 - o))) by lia.
    + now replace (v + e) with (e + v) by lia.
  - unfold ipv4_header_len, USIZE in *. fold o. rewrite sub_chk_ok by lia. cbn [bind].
    rewrite sub_chk_ok by lia. cbn [bind].
    rewrite (proj2 (N.ltb_lt (65515 - o - e) v)) by lia.
    now replace (65535 - (20 + o) - e) with (65515 - o - e) by lia.
Qed.

Lemma iph4_set_payload_len_c14 h x v : ipv4_wf h -> v4exts_wf x ->
  c14_set (iph_set_payload_len (IpV4 h x) v) (IpV4 h x) v
    (iph4_repr (v4_opt_len h) (v4x_len x)) (iph4_max (v4_opt_len h) (v4x_len x)) Ipv4PayloadLength
    (fun s' => exists h', s' = IpV4 h' x /\ ipv4_good h (v4x_len x) v h' /\
                          iph4_dec (v4_opt_len h) (v4x_len x) (v4_total_len h') = v).
Proof.
  intros Hwf Hx. pose proof (v4x_len_bound x Hx) as He.
  eapply c14_set_le;
    [apply (iph4_thr _ _ Hwf He) | apply (iph4_set_payload_len_eq _ _ _ Hwf Hx) |].
  intros Hle. eexists. split; [reflexivity|]. unfold ipv4_wf in Hwf. split.
  - apply ipv4_good_intro; [exact Hwf | lia].
  - unfold v4_set_total. cbn [v4_total_len]. unf. lia.
Qed.

Lemma iph6_set_payload_len_eq h x v : v6exts_wf x ->
  iph_set_payload_len (IpV6 h x) v =
  if 65535 - v6x_len x <? v
  then (Err (mk_vtb v (65535 - v6x_len x) Ipv6PayloadLength), IpV6 h x)
  else (Ok tt, IpV6 {| v6_payload_length := v6x_len x + v; v6_rest := v6_rest h |} x).
Proof.
  intros Hx. pose proof (v6x_len_bound x Hx) as He.
  unfold iph_set_payload_len, checked_add_usize. rewrite v6exts_header_len_spec.
  set (e := v6x_len x) in *.
  destruct (N.ltb_spec (v + e) USIZE) as [Hs|Hs].
  - rewrite ipv6_set_payload_length_eq.
    destruct (N.ltb_spec 65535 (v + e)), (N.ltb_spec (65535 - e) v); try lia;
      cbn [map_vtb max_allowed vtype].
    + unfold saturating_sub. now rewrite (proj2 (N.leb_le e 65535)) by lia.
    + now replace (v + e) with (e + v) by lia.
  - unfold USIZE in Hs. rewrite sub_chk_ok by lia. cbn [bind].
    now rewrite (proj2 (N.ltb_lt (65535 - e) v)) by lia.
Qed.

Lemma iph6_set_payload_len_c14 h x v : v6exts_wf x ->
  c14_set (iph_set_payload_len (IpV6 h x) v) (IpV6 h x) v
    (iph6_repr (v6x_len x)) (iph6_max (v6x_len x)) Ipv6PayloadLength
    (fun s' => exists h', s' = IpV6 h' x /\ ipv6_good h (v6x_len x + v) h' /\
                          iph6_dec (v6x_len x) (v6_payload_length h') = v).
Proof.
  intros Hx. pose proof (v6x_len_bound x Hx) as He.
  eapply c14_set_le; [apply (iph6_thr _ He) | apply (iph6_set_payload_len_eq _ _ _ Hx) |].
  intros Hle. eexists. split; [reflexivity|]. split.
  - apply ipv6_good_intro. lia.
  - cbn [v6_payload_length]. unf. lia.
Qed.

Lemma udp_thr : threshold udp_repr udp_max 65527.
Proof. thr. Qed.
Lemma udp6_pseudo_thr : threshold udp6_pseudo_repr udp6_pseudo_max 4294967287.
Proof. thr. Qed.

(* accepted UDP constructor result: the length field (and, when a checksum is
   computed, the length entering the pseudo header) is 8 + v *)
Definition udp_good (rest v : N) (with_ck : bool) (h : udph) : Prop :=
  u_length h = udp_hdr + v /\ wire16 (to_be16 (u_length h)) = Some (udp_hdr + v) /\
  udp_dec (u_length h) = v /\
  u_ck h = (if with_ck then Some (udp_hdr + v) else None) /\ u_rest h = rest.

(* the three constructors are this expression, with `mk` filling the header *)
Lemma udp_ctor_eq site k (mk : N -> udph) v :
  (if 65535 - UDP_LEN <? v then Err (mk_vtb v (65535 - UDP_LEN) k)
   else bind (add_chk (E:=vtb) site USIZE UDP_LEN v) (fun s => Ok (mk (as_u16 s)))) =
  if 65527 <? v then Err (mk_vtb v 65527 k) else Ok (mk (8 + v)).
Proof.
  change (65535 - UDP_LEN) with 65527. unfold UDP_LEN.
  destruct (N.ltb_spec 65527 v); [reflexivity|].
  rewrite add_chk_ok by (unfold USIZE; lia). cbn [bind]. now rewrite as_u16_small by lia.
Qed.

Lemma udp_ctor_c14 k (with_ck : bool) rest v (r : res vtb udph) :
  r = (if 65527 <? v then Err (mk_vtb v 65527 k)
       else Ok {| u_length := 8 + v; u_ck := if with_ck then Some (8 + v) else None;
                  u_rest := rest |}) ->
  c14_new r v udp_repr udp_max k (udp_good rest v with_ck).
Proof.
  intros Hr. eapply c14_new_le; [apply udp_thr | exact Hr |].
  intros Hle. unfold udp_good. cbn [u_length u_ck u_rest]. unf.
  rewrite wire16_to_be16 by lia. repeat split. lia.
Qed.

Lemma udp_without_ipv4_checksum_c14 rest v :
  c14_new (udp_without_ipv4_checksum rest v) v udp_repr udp_max UdpPayloadLengthIpv4
    (udp_good rest v false).
Proof.
  apply udp_ctor_c14.
  exact (udp_ctor_eq 120 _ (fun l => {| u_length := l; u_ck := None; u_rest := rest |}) v).
Qed.
Lemma udp_with_ipv4_checksum_c14 rest v :
  c14_new (udp_with_ipv4_checksum rest v) v udp_repr udp_max UdpPayloadLengthIpv4
    (udp_good rest v true).
Proof.
  apply udp_ctor_c14.
  exact (udp_ctor_eq 121 _ (fun l => {| u_length := l; u_ck := Some l; u_rest := rest |}) v).
Qed.
Lemma udp_with_ipv6_checksum_c14 rest v :
  c14_new (udp_with_ipv6_checksum rest v) v udp_repr udp_max UdpPayloadLengthIpv6
    (udp_good rest v true).
Proof.
  apply udp_ctor_c14.
  exact (udp_ctor_eq 122 _ (fun l => {| u_length := l; u_ck := Some l; u_rest := rest |}) v).
Qed.

(* calc_checksum_*: only the check; the pseudo header gets self.length *)
Lemma udp_calc_checksum_ipv4_c14 h v :
  c14_new (udp_calc_checksum_ipv4 h v) v udp_repr udp_max UdpPayloadLengthIpv4
    (fun l => l = u_length h).
Proof. eapply c14_new_le; [apply udp_thr | reflexivity | reflexivity]. Qed.
Lemma udp_calc_checksum_ipv6_c14 h v :
  c14_new (udp_calc_checksum_ipv6 h v) v udp6_pseudo_repr udp6_pseudo_max UdpPayloadLengthIpv6
    (fun l => l = u_length h).
Proof. eapply c14_new_le; [apply udp6_pseudo_thr | reflexivity | reflexivity]. Qed.

Definition tcp_wf (h : tcph) : Prop := t_opt_len h <= 40.

Lemma tcp4_thr hl : hl <= 60 -> threshold (tcp4_repr hl) (tcp4_max hl) (65535 - hl).
Proof. intros Hl. thr. Qed.
Lemma tcp6_thr hl : hl <= 60 -> threshold (tcp6_repr hl) (tcp6_max hl) (4294967295 - hl).
Proof. intros Hl. thr. Qed.
Lemma tcp_header_len_spec h : tcp_header_len h = tcp_hdr_len (t_opt_len h).
Proof. unfold tcp_header_len, tcp_hdr_len, tcp_fixed. lia. Qed.

(* the shape shared by the four header functions: W is the greatest value of
   the pseudo header field, `cast` the cast to its type *)
Lemma tcp_len_eq s s' W (cast : N -> N) k hl v :
  hl <= W -> (forall x, x <= W -> cast x = x) ->
  bind (sub_chk (E:=vtb) s W hl)
       (fun mp => if mp <? v then Err (mk_vtb v mp k) else add_chk s' (W + 1) hl (cast v)) =
  if W - hl <? v then Err (mk_vtb v (W - hl) k) else Ok (hl + v).
Proof.
  intros Hl Hc. rewrite sub_chk_ok by exact Hl. cbn [bind].
  destruct (N.ltb_spec (W - hl) v); [reflexivity|].
  rewrite Hc by lia. apply add_chk_ok. lia.
Qed.

Lemma tcp_calc_checksum_ipv4_c14 h v : tcp_wf h ->
  c14_new (tcp_calc_checksum_ipv4 h v) v (tcp4_repr (tcp_hdr_len (t_opt_len h)))
    (tcp4_max (tcp_hdr_len (t_opt_len h))) TcpPayloadLengthIpv4
    (fun l => l = tcp_hdr_len (t_opt_len h) + v /\ wire16 (to_be16 l) = Some (tcp_hdr_len (t_opt_len h) + v)).
Proof.
  unfold tcp_wf. intros Hwf. rewrite <- tcp_header_len_spec.
  assert (Hl : tcp_header_len h <= 60) by (unfold tcp_header_len; lia).
  eapply c14_new_le; [apply (tcp4_thr _ Hl) | | intros Hle; split; [reflexivity | apply wire16_to_be16; lia]].
  unfold tcp_calc_checksum_ipv4, tcp_header_len_u16. fold (tcp_header_len h).
  rewrite add_chk_ok by (unfold tcp_header_len, U16; lia). cbn [bind]. fold (tcp_header_len h).
  apply (tcp_len_eq 134 135 65535 as_u16); [lia | intros x Hx; apply as_u16_small; lia].
Qed.

Lemma tcp_calc_checksum_ipv6_c14 h v : tcp_wf h ->
  c14_new (tcp_calc_checksum_ipv6 h v) v (tcp6_repr (tcp_hdr_len (t_opt_len h)))
    (tcp6_max (tcp_hdr_len (t_opt_len h))) TcpPayloadLengthIpv6
    (fun l => l = tcp_hdr_len (t_opt_len h) + v /\ l < 2 ^ 32).
Proof.
  unfold tcp_wf. intros Hwf. rewrite <- tcp_header_len_spec.
  assert (Hl : tcp_header_len h <= 60) by (unfold tcp_header_len; lia).
  eapply c14_new_le; [apply (tcp6_thr _ Hl) | | intros Hle; split; [reflexivity | lia]].
  unfold tcp_calc_checksum_ipv6, tcp_header_len_u16. fold (tcp_header_len h).
  rewrite add_chk_ok by (unfold tcp_header_len, U16; lia). cbn [bind]. fold (tcp_header_len h).
  apply (tcp_len_eq 136 137 4294967295 as_u32); [lia | intros x Hx; apply as_u32_small; lia].
Qed.

(* TcpHeaderSlice: sl = length of the header slice, 20..60 *)
Lemma tcphs_calc_checksum_ipv4_c14 sl v : sl <= 60 ->
  c14_new (tcphs_calc_checksum_ipv4 sl v) v (tcp4_repr sl) (tcp4_max sl) TcpPayloadLengthIpv4
    (fun l => l = sl + v /\ wire16 (to_be16 l) = Some (sl + v)).
Proof.
  intros Hsl.
  eapply c14_new_le; [apply (tcp4_thr _ Hsl) | | intros Hle; split; [reflexivity | apply wire16_to_be16; lia]].
  unfold tcphs_calc_checksum_ipv4. rewrite (as_u16_small sl) by lia.
  apply (tcp_len_eq 138 139 65535 as_u16); [lia | intros x Hx; apply as_u16_small; lia].
Qed.

Lemma tcphs_calc_checksum_ipv6_c14 sl v : sl <= 60 ->
  c14_new (tcphs_calc_checksum_ipv6 sl v) v (tcp6_repr sl) (tcp6_max sl) TcpPayloadLengthIpv6
    (fun l => l = sl + v /\ l < 2 ^ 32).
Proof.
  intros Hsl.
  eapply c14_new_le; [apply (tcp6_thr _ Hsl) | | intros Hle; split; [reflexivity | lia]].
  unfold tcphs_calc_checksum_ipv6. rewrite (as_u32_small sl) by lia.
  apply (tcp_len_eq 140 141 4294967295 as_u32); [lia | intros x Hx; apply as_u32_small; lia].
Qed.

(* TcpSlice: the whole segment length is the value *)
Lemma tcpslice_calc_checksum_ipv4_c14 sl :
  c14_new (tcpslice_calc_checksum_ipv4 sl) sl (tcp4_repr 0) (tcp4_max 0) TcpPayloadLengthIpv4
    (fun l => l = sl /\ wire16 (to_be16 l) = Some sl).
Proof.
  eapply c14_new_le; [apply (tcp4_thr 0); lia | reflexivity |].
  change (65535 - 0) with 65535. intros Hle. rewrite as_u16_small by lia.
  split; [reflexivity | apply wire16_to_be16; lia].
Qed.
Lemma tcpslice_calc_checksum_ipv6_c14 sl :
  c14_new (tcpslice_calc_checksum_ipv6 sl) sl (tcp6_repr 0) (tcp6_max 0) TcpPayloadLengthIpv6
    (fun l => l = sl /\ l < 2 ^ 32).
Proof.
  eapply c14_new_le; [apply (tcp6_thr 0); lia | reflexivity |].
  change (4294967295 - 0) with 4294967295. intros Hle. rewrite as_u32_small by lia.
  split; [reflexivity | lia].
Qed.

Lemma icmp6_thr : threshold icmp6_repr icmp6_max 4294967287.
Proof. thr. Qed.

Lemma icmpv6_calc_checksum_eq v :
  icmpv6_calc_checksum v =
  if 4294967287 <? v then Err (mk_vtb v 4294967287 Icmpv6PayloadLength) else Ok (8 + v).
Proof.
  unfold icmpv6_calc_checksum. cbv zeta. rewrite sub_chk_ok by lia. cbn [bind].
  change (4294967295 - 8) with 4294967287. destruct (N.ltb_spec 4294967287 v); [reflexivity|].
  rewrite add_chk_ok by (unfold USIZE; lia). cbn [bind]. rewrite as_u32_small by lia.
  f_equal. lia.
Qed.

Lemma icmpv6_calc_checksum_c14 v :
  c14_new (icmpv6_calc_checksum v) v icmp6_repr icmp6_max Icmpv6PayloadLength
    (fun l => l = icmp6_hdr + v /\ l < 2 ^ 32).
Proof.
  eapply c14_new_le; [apply icmp6_thr | apply icmpv6_calc_checksum_eq |].
  intros Hle. split; [reflexivity | lia].
Qed.

Lemma macsec_thr u : threshold (macsec_repr u) (macsec_max u) (if u then 61 else 63).
Proof. unfold macsec_repr, macsec_max, macsec_sl. destruct u; thr. Qed.
Lemma land63 x : x < 64 -> N.land x 63 = x.
Proof. intros Hx. change 63 with (N.ones 6). rewrite N.land_ones. apply N.mod_small. exact Hx. Qed.

Lemma macsec_set_payload_len_c14 h v :
  c14_macsec (macsec_set_payload_len h v) (m_unmodified h) v
    m_short_len macsec_sl_byte macsec_expected_payload_len
    (fun h' => m_unmodified h' = m_unmodified h /\ m_rest h' = m_rest h).
Proof.
  unfold c14_macsec. split; [exact (threshold_greatest _ _ _ (macsec_thr _))|].
  destruct h as [u sl0 rest]. cbn [m_unmodified m_rest].
  unfold macsec_set_payload_len, macsec_repr, macsec_sl, macsec_unknown, MACSEC_MAX_USIZE,
    macsec_from_u8_unchecked, sbind, add_chk, U8, m_set_sl, macsec_sl_byte, macsec_expected_payload_len,
    macsec_dec, macsec_unknown, fits.
  cbn [m_unmodified m_short_len m_rest]. change (63 - 2) with 61.
  destruct u.
  - destruct (N.ltb_spec 61 v).
    + cbn [fst snd m_short_len m_unmodified m_rest]. change (N.land 0 63) with 0.
      repeat split; intros; try lia; reflexivity.
    + rewrite as_u8_small by lia.
      destruct (N.ltb_spec (v + 2) 256); [|lia]. destruct (N.leb_spec (v + 2) 63); [|lia].
      cbn [fst snd m_short_len m_unmodified m_rest]. rewrite land63 by lia.
      destruct (N.ltb_spec 0 (v + 2)); [|lia]. destruct (N.eqb_spec (v + 2) 0); [lia|].
      destruct (N.ltb_spec (v + 2) 2); [lia|].
      repeat split; intros; try lia; try reflexivity; f_equal; lia.
  - destruct (N.ltb_spec 63 v).
    + cbn [fst snd m_short_len m_unmodified m_rest]. change (N.land 0 63) with 0.
      repeat split; intros; try lia; reflexivity.
    + rewrite as_u8_small by lia. destruct (N.leb_spec v 63); [|lia].
      cbn [fst snd m_short_len m_unmodified m_rest]. rewrite land63 by lia.
      destruct (N.ltb_spec 0 v); destruct (N.eqb_spec v 0); try lia;
        repeat split; intros; try lia; try reflexivity; f_equal; lia.
Qed.

Lemma macsec_short_len_from_len_c14 v :
  (macsec_repr false v -> macsec_short_len_from_len v = v) /\
  (~ macsec_repr false v -> macsec_short_len_from_len v = macsec_unknown).
Proof.
  unfold macsec_short_len_from_len, macsec_repr, macsec_sl, macsec_unknown, fits.
  destruct (N.ltb_spec 63 v); split; intros; try lia; try reflexivity.
  apply as_u8_small. lia.
Qed.

Lemma macsec_short_len_try_from_u8_c14 v :
  c14_new (macsec_short_len_try_from_u8 v) v (fits 6) (field_max 6) MacsecShortLen (fun s => s = v).
Proof.
  eapply (c14_new_le _ v _ _ 63); [thr | | reflexivity].
  unfold macsec_short_len_try_from_u8. rewrite (N.ltb_antisym v 63). now destruct (v <=? 63).
Qed.

Lemma ah_max_val : ah_max = 1016. Proof. reflexivity. Qed.
Lemma ah_repr_iff n : ah_repr n <-> n <= 1016 /\ n mod 4 = 0.
Proof.
  unfold ah_repr, ah_fixed, fits. split.
  - intros [Hm Hf]. split; [dmlia | exact Hm].
  - intros [Hl Hm]. split; [exact Hm | dmlia].
Qed.
Lemma ah_greatest : greatest ah_repr ah_max.
Proof.
  rewrite ah_max_val. split.
  - apply ah_repr_iff. split; [lia | reflexivity].
  - intros v Hv. apply ah_repr_iff in Hv. lia.
Qed.
Lemma ah_reprb_spec n : ah_reprb n = true <-> ah_repr n.
Proof. unfold ah_reprb, ah_repr. rewrite andb_true_iff, fitsb_spec, N.eqb_eq. tauto. Qed.

(* accepted ICV of n bytes: stored length field, encoded Payload Len byte,
   what raw_icv().len() and header_len() give back *)
Definition ah_good (rest n : N) (h : ahh) : Prop :=
  (exists f, ah_len_byte (E:=unit) h = Ok f /\ fits 8 f /\ ah_dec f = n /\ ah_total_len f = ah_fixed + n) /\
  ah_raw_icv_len_bytes h = n /\ ah_header_len (a_raw_icv_len h) = ah_fixed + n /\
  a_raw_icv_len h < 256 /\ a_rest h = rest.

Lemma ah_good_intro rest n : ah_repr n ->
  ah_good rest n {| a_raw_icv_len := as_u8 (n / 4); a_rest := rest |}.
Proof.
  rewrite ah_repr_iff. intros [Hl Hm]. assert (Hq : n / 4 <= 254) by dmlia. rewrite as_u8_small by lia.
  unfold ah_good, ah_len_byte, ah_raw_icv_len_bytes, ah_header_len, ah_dec, ah_total_len, ah_fixed, fits.
  cbn [a_raw_icv_len a_rest]. rewrite add_chk_ok by (unfold U8; lia).
  repeat split; try lia; try dmlia.
  exists (n / 4 + 1). repeat split; try lia; dmlia.
Qed.

Definition ah_rej (n : N) : bool := (1016 <? n) || negb (n mod 4 =? 0).
Lemma ah_rej_spec n : ah_rej n = false <-> ah_repr n.
Proof.
  unfold ah_rej. rewrite ah_repr_iff, orb_false_iff, negb_false_iff, N.ltb_ge, N.eqb_eq. tauto.
Qed.

Lemma ah_new_eq rest n :
  ah_new rest n =
  if ah_rej n then Err (ah_bad n) else Ok {| a_raw_icv_len := as_u8 (n / 4); a_rest := rest |}.
Proof.
  unfold ah_new, ah_bad, ah_rej, AH_MAX_ICV_LEN. rewrite ah_max_val, (N.eqb_sym 0).
  change (254 * 4) with 1016. destruct (N.ltb_spec 1016 n); [reflexivity|]. cbn [orb].
  destruct (negb (n mod 4 =? 0)); [reflexivity|]. now rewrite slice_to_ok by assumption.
Qed.
Lemma ah_set_raw_icv_eq h n :
  ah_set_raw_icv h n =
  if ah_rej n then (Err (ah_bad n), h)
  else (Ok tt, {| a_raw_icv_len := as_u8 (n / 4); a_rest := a_rest h |}).
Proof.
  unfold ah_set_raw_icv, ah_bad, ah_rej, AH_MAX_ICV_LEN. rewrite ah_max_val, (N.eqb_sym 0).
  change (254 * 4) with 1016. destruct (N.ltb_spec 1016 n); [reflexivity|]. cbn [orb].
  destruct (negb (n mod 4 =? 0)); [reflexivity|]. now rewrite slice_to_ok by assumption.
Qed.

Lemma ah_new_c14 rest n : c14_gen (ah_new rest n) n ah_repr ah_bad (ah_good rest n).
Proof. rewrite ah_new_eq. apply c14_gen_if; [apply ah_rej_spec | apply ah_good_intro]. Qed.

Lemma ah_set_raw_icv_c14 h n :
  c14_gen_set (ah_set_raw_icv h n) h n ah_repr ah_bad (ah_good (a_rest h) n).
Proof. rewrite ah_set_raw_icv_eq. apply c14_gen_set_if; [apply ah_rej_spec | apply ah_good_intro]. Qed.

Lemma ext_min_val : ext_min = 6. Proof. reflexivity. Qed.
Lemma ext_max_val : ext_max = 2046. Proof. reflexivity. Qed.
Lemma ext_repr_iff n : ext_repr n <-> 6 <= n /\ n <= 2046 /\ (n + 2) mod 8 = 0.
Proof.
  unfold ext_repr, fits. replace (2 + n) with (n + 2) by lia. split.
  - intros [Hm [Hl Hf]]. repeat split; [lia | dmlia | exact Hm].
  - intros [Hl [Hu Hm]]. repeat split; [exact Hm | lia | dmlia].
Qed.
Lemma ext_greatest : greatest ext_repr ext_max /\ least ext_repr ext_min.
Proof.
  rewrite ext_max_val, ext_min_val. split; split.
  - apply ext_repr_iff. repeat split; try lia.
  - intros v Hv. apply ext_repr_iff in Hv. lia.
  - apply ext_repr_iff. repeat split; try lia.
  - intros v Hv. apply ext_repr_iff in Hv. lia.
Qed.
Lemma ext_reprb_spec n : ext_reprb n = true <-> ext_repr n.
Proof.
  unfold ext_reprb, ext_repr. rewrite !andb_true_iff, fitsb_spec, N.eqb_eq, N.leb_le. tauto.
Qed.

Definition ext_good (rest n : N) (h : exth) : Prop :=
  fits 8 (e_header_length h) /\ ext_dec (e_header_length h) = n /\
  ext_total_len (e_header_length h) = 2 + n /\
  rawext_payload_len h = n /\ rawext_header_len (e_header_length h) = 2 + n /\ e_rest h = rest.

Lemma ext_good_intro rest n : ext_repr n ->
  ext_good rest n {| e_header_length := as_u8 ((n - 6) / 8); e_rest := rest |}.
Proof.
  rewrite ext_repr_iff. intros (Hl & Hu & Hm).
  assert (Hq : (n - 6) / 8 <= 255) by dmlia. rewrite as_u8_small by lia.
  unfold ext_good, ext_dec, ext_total_len, rawext_payload_len, rawext_header_len, fits.
  cbn [e_header_length e_rest].
  repeat split; try lia; dmlia.
Qed.

Lemma ext_cond n : 6 <= n -> n <= 2046 ->
  negb (0 =? (n + 2) mod 8) = negb ((n + 2) mod 8 =? 0).
Proof. intros. rewrite N.eqb_sym. reflexivity. Qed.

Definition ext_rej (n : N) : bool := (n <? 6) || (2046 <? n) || negb ((n + 2) mod 8 =? 0).
Lemma ext_rej_spec n : ext_rej n = false <-> ext_repr n.
Proof.
  unfold ext_rej.
  rewrite ext_repr_iff, !orb_false_iff, negb_false_iff, !N.ltb_ge, N.eqb_eq. tauto.
Qed.

Lemma rawext_new_raw_eq rest n :
  rawext_new_raw rest n =
  if ext_rej n then Err (ext_bad n)
  else Ok {| e_header_length := as_u8 ((n - 6) / 8); e_rest := rest |}.
Proof.
  unfold rawext_new_raw, ext_bad, ext_rej, EXT_MIN_PAYLOAD_LEN, EXT_MAX_PAYLOAD_LEN.
  rewrite ext_min_val, ext_max_val. change (255 * 8 + 6) with 2046.
  destruct (N.ltb_spec n 6); [reflexivity|]. destruct (N.ltb_spec 2046 n); [reflexivity|]. cbn [orb].
  rewrite add_chk_ok by (unfold USIZE; lia). cbn [bind]. rewrite (N.eqb_sym 0).
  destruct (negb ((n + 2) mod 8 =? 0)); [reflexivity|].
  rewrite sub_chk_ok by assumption. cbn [bind]. now rewrite slice_to_ok by assumption.
Qed.
Lemma rawext_set_payload_eq h n :
  rawext_set_payload h n =
  if ext_rej n then (Err (ext_bad n), h)
  else (Ok tt, {| e_header_length := as_u8 ((n - 6) / 8); e_rest := e_rest h |}).
Proof.
  unfold rawext_set_payload, ext_bad, ext_rej, EXT_MIN_PAYLOAD_LEN, EXT_MAX_PAYLOAD_LEN.
  rewrite ext_min_val, ext_max_val. change (255 * 8 + 6) with 2046.
  destruct (N.ltb_spec n 6); [reflexivity|]. destruct (N.ltb_spec 2046 n); [reflexivity|]. cbn [orb].
  rewrite add_chk_ok by (unfold USIZE; lia). cbn [sbind]. rewrite (N.eqb_sym 0).
  destruct (negb ((n + 2) mod 8 =? 0)); [reflexivity|].
  rewrite slice_to_ok by assumption. cbn [sbind]. now rewrite sub_chk_ok by assumption.
Qed.

Lemma rawext_new_raw_c14 rest n : c14_gen (rawext_new_raw rest n) n ext_repr ext_bad (ext_good rest n).
Proof. rewrite rawext_new_raw_eq. apply c14_gen_if; [apply ext_rej_spec | apply ext_good_intro]. Qed.

Lemma rawext_set_payload_c14 h n :
  c14_gen_set (rawext_set_payload h n) h n ext_repr ext_bad (ext_good (e_rest h) n).
Proof.
  rewrite rawext_set_payload_eq. apply c14_gen_set_if; [apply ext_rej_spec | apply ext_good_intro].
Qed.

Lemma tcp_opts_max_val : tcp_opts_max = 40. Proof. reflexivity. Qed.
Lemma tcp_opts_repr_iff n : tcp_opts_repr n <-> n <= 40.
Proof. unfold tcp_opts_repr, pad4. unf. split; intros; dmlia. Qed.
Lemma tcp_opts_greatest : greatest tcp_opts_repr tcp_opts_max.
Proof.
  rewrite tcp_opts_max_val. split; [apply tcp_opts_repr_iff; lia|].
  intros v Hv. now apply tcp_opts_repr_iff in Hv.
Qed.
Lemma tcp_opts_rej_spec n : (40 <? n) = false <-> tcp_opts_repr n.
Proof. rewrite N.ltb_ge. symmetry. apply tcp_opts_repr_iff. Qed.

(* the finite part (option areas of 0..40 bytes) is swept by computation *)
Definition range41 : list N := map N.of_nat (seq 0 41).
Lemma in_range41 n : n <= 40 -> In n range41.
Proof.
  intros Hn. unfold range41. apply in_map_iff. exists (N.to_nat n). split; [lia|].
  apply in_seq. lia.
Qed.

(* stored length l of an accepted option area of n bytes *)
Definition tcp_opts_goodb (n l : N) : bool :=
  (l =? pad4 n) && (l <=? 40) &&
  match tcp_data_offset (E:=unit) l with
  | Ok d => (d <? 16) && (tcp_opts_dec d =? pad4 n) && (tcp_hdr_len l =? d * 4)
  | _ => false
  end.
Definition tcp_opts_good (n l : N) : Prop :=
  l = pad4 n /\ l <= 40 /\
  exists d, tcp_data_offset (E:=unit) l = Ok d /\ fits 4 d /\ tcp_opts_dec d = pad4 n /\ tcp_hdr_len l = d * 4.
Lemma tcp_opts_goodb_good n l : tcp_opts_goodb n l = true -> tcp_opts_good n l.
Proof.
  unfold tcp_opts_goodb, tcp_opts_good. rewrite !andb_true_iff, N.eqb_eq, N.leb_le.
  intros [[H1 H2] H3]. split; [exact H1|]. split; [exact H2|].
  destruct (tcp_data_offset l) as [d| |]; try discriminate. exists d.
  rewrite !andb_true_iff, N.ltb_lt, !N.eqb_eq in H3. unfold fits. tauto.
Qed.

(* an accepted slice of n bytes is stored with the length pad4 n *)
Definition tcp_slice_sweep (n : N) : bool :=
  match tcp_options_try_from_slice n with Ok l => tcp_opts_goodb n l | _ => false end.
Lemma tcp_slice_sweep_ok : forallb tcp_slice_sweep range41 = true.
Proof. vm_compute. reflexivity. Qed.

Lemma tcp_options_try_from_slice_eq n :
  tcp_options_try_from_slice n = if 40 <? n then Err n else Ok (pad4 n).
Proof.
  destruct (N.ltb_spec 40 n) as [H|H].
  - unfold tcp_options_try_from_slice. now rewrite (proj2 (N.ltb_lt _ _) H).
  - pose proof (proj1 (forallb_forall _ _) tcp_slice_sweep_ok n (in_range41 n H)) as Hs.
    unfold tcp_slice_sweep in Hs. destruct (tcp_options_try_from_slice n) as [l| |]; try discriminate.
    apply tcp_opts_goodb_good in Hs. now destruct Hs as [-> _].
Qed.
Lemma tcp_slice_good n : tcp_opts_repr n -> tcp_opts_good n (pad4 n).
Proof.
  rewrite tcp_opts_repr_iff. intros H.
  pose proof (proj1 (forallb_forall _ _) tcp_slice_sweep_ok n (in_range41 n H)) as Hs.
  unfold tcp_slice_sweep in Hs. rewrite tcp_options_try_from_slice_eq in Hs.
  rewrite (proj2 (N.ltb_ge _ _) H) in Hs. now apply tcp_opts_goodb_good.
Qed.

Lemma tcp_options_try_from_slice_c14 n :
  c14_gen (tcp_options_try_from_slice n) n tcp_opts_repr (fun not_enough_space => not_enough_space)
    (tcp_opts_good n).
Proof.
  rewrite tcp_options_try_from_slice_eq.
  apply (c14_gen_if _ n _ (fun l => l)); [apply tcp_opts_rej_spec | apply tcp_slice_good].
Qed.

Lemma fold_left_add l a : fold_left (fun acc x => acc + x) l a = a + nsum l.
Proof.
  unfold nsum. revert a. induction l as [|x l IH]; intros a; cbn [fold_left fold_right]; [lia|].
  rewrite IH. lia.
Qed.

Definition tcp_pad_len (len : N) : N :=
  as_u8 (if (0 <? len) && negb (N.land len 3 =? 0) then N.ldiff len 3 + 4 else len).
Lemma tcp_options_try_from_elements_eq sizes :
  tcp_options_try_from_elements sizes =
  if 40 <? nsum sizes then Err (nsum sizes) else Ok (tcp_pad_len (nsum sizes)).
Proof.
  unfold tcp_options_try_from_elements, tcp_pad_len. rewrite !fold_left_add. reflexivity.
Qed.
Lemma tcp_elements_sweep_ok : forallb (fun s => tcp_opts_goodb s (tcp_pad_len s)) range41 = true.
Proof. vm_compute. reflexivity. Qed.

Lemma tcp_options_try_from_elements_c14 sizes :
  c14_gen (tcp_options_try_from_elements sizes) (nsum sizes) tcp_opts_repr
    (fun not_enough_space => not_enough_space) (tcp_opts_good (nsum sizes)).
Proof.
  rewrite tcp_options_try_from_elements_eq.
  apply (c14_gen_if _ (nsum sizes) _ (fun l => l)); [apply tcp_opts_rej_spec|].
  rewrite tcp_opts_repr_iff. intros Hle. apply tcp_opts_goodb_good.
  exact (proj1 (forallb_forall _ _) tcp_elements_sweep_ok _ (in_range41 _ Hle)).
Qed.

Definition tcp_set_good (h : tcph) (n : N) (h' : tcph) : Prop :=
  tcp_opts_good n (t_opt_len h') /\ tcp_wf h' /\ t_rest h' = t_rest h.

Lemma tcp_set_good_intro h n l :
  tcp_opts_good n l -> tcp_set_good h n {| t_opt_len := l; t_rest := t_rest h |}.
Proof. intros Hg. split; [exact Hg|]. split; [apply Hg | reflexivity]. Qed.

Lemma tcp_set_options_raw_c14 h n :
  c14_gen_set (tcp_set_options_raw h n) h n tcp_opts_repr (fun nes => nes) (tcp_set_good h n).
Proof.
  exact (c14_gen_sbind _ h (fun l => {| t_opt_len := l; t_rest := t_rest h |}) _ _ _ _ _
           (tcp_options_try_from_slice_c14 n) (tcp_set_good_intro h n)).
Qed.

Lemma tcp_set_options_c14 h sizes :
  c14_gen_set (tcp_set_options h sizes) h (nsum sizes) tcp_opts_repr (fun nes => nes)
    (tcp_set_good h (nsum sizes)).
Proof.
  exact (c14_gen_sbind _ h (fun l => {| t_opt_len := l; t_rest := t_rest h |}) _ _ _ _ _
           (tcp_options_try_from_elements_c14 sizes) (tcp_set_good_intro h (nsum sizes))).
Qed.

Lemma arp_thr : threshold arp_repr arp_max 255.
Proof. thr. Qed.
Lemma arp_greatest : greatest arp_repr arp_max.
Proof. exact (threshold_greatest _ _ _ arp_thr). Qed.
Lemma arp_repr_iff n : arp_repr n <-> n <= 255.
Proof. apply arp_thr. Qed.
Lemma arp_rej_spec n : (255 <? n) = false <-> arp_repr n.
Proof. rewrite N.ltb_ge. symmetry. apply arp_repr_iff. Qed.

(* ArpPacket::new with matching address lengths: both lengths have to fit *)
Lemma arp_new_c14 rest hw pr :
  (arp_repr hw -> arp_repr pr ->
     arp_new rest hw pr hw pr = Ok {| ar_hw_size := hw; ar_proto_size := pr; ar_rest := rest |}) /\
  (~ arp_repr hw -> arp_new rest hw pr hw pr = Err (ArpHwTooBig hw)) /\
  (arp_repr hw -> ~ arp_repr pr -> arp_new rest hw pr hw pr = Err (ArpProtoTooBig pr)) /\
  ((exists a, arp_new rest hw pr hw pr = Ok a) <-> arp_repr hw /\ arp_repr pr).
Proof.
  rewrite !arp_repr_iff. unfold arp_new. rewrite !N.eqb_refl. cbn [negb].
  destruct (N.ltb_spec 255 hw); [|destruct (N.ltb_spec 255 pr)].
  - repeat split; intros; try lia; try reflexivity;
      match goal with Hx : exists _, Err _ = Ok _ |- _ => destruct Hx; discriminate end.
  - repeat split; intros; try lia; try reflexivity;
      match goal with Hx : exists _, Err _ = Ok _ |- _ => destruct Hx; discriminate end.
  - rewrite !arp_copy_ok by assumption. cbn [bind]. rewrite !as_u8_small by lia.
    repeat split; intros; try lia; try reflexivity. eexists; reflexivity.
Qed.

Lemma arp_new_non_matching rest shw sp thw tp :
  (shw <> thw -> arp_new rest shw sp thw tp = Err (ArpHwNonMatching shw thw)) /\
  (shw = thw -> sp <> tp -> arp_new rest shw sp thw tp = Err (ArpProtoNonMatching sp tp)).
Proof.
  unfold arp_new. split.
  - intros Hn. destruct (N.eqb_spec shw thw); [contradiction | reflexivity].
  - intros -> Hn. rewrite N.eqb_refl. cbn [negb]. destruct (N.eqb_spec sp tp); [contradiction | reflexivity].
Qed.

Lemma arp_set_hw_addrs_eq h n :
  arp_set_hw_addrs h n n =
  if 255 <? n then (Err (ArpHwTooBig n), h)
  else (Ok tt, {| ar_hw_size := n; ar_proto_size := ar_proto_size h; ar_rest := ar_rest h |}).
Proof.
  unfold arp_set_hw_addrs. rewrite N.eqb_refl. cbn [negb].
  destruct (N.ltb_spec 255 n); [reflexivity|].
  rewrite !arp_copy_ok by assumption. cbn [sbind]. now rewrite as_u8_small by lia.
Qed.
Lemma arp_set_protocol_addrs_eq h n :
  arp_set_protocol_addrs h n n =
  if 255 <? n then (Err (ArpProtoTooBig n), h)
  else (Ok tt, {| ar_hw_size := ar_hw_size h; ar_proto_size := n; ar_rest := ar_rest h |}).
Proof.
  unfold arp_set_protocol_addrs. rewrite N.eqb_refl. cbn [negb].
  destruct (N.ltb_spec 255 n); [reflexivity|].
  rewrite !arp_copy_ok by assumption. cbn [sbind]. now rewrite as_u8_small by lia.
Qed.

Lemma arp_set_hw_addrs_c14 h n :
  c14_gen_set (arp_set_hw_addrs h n n) h n arp_repr ArpHwTooBig
    (fun h' => ar_hw_size h' = n /\ ar_proto_size h' = ar_proto_size h /\ ar_rest h' = ar_rest h).
Proof.
  rewrite arp_set_hw_addrs_eq. apply c14_gen_set_if; [apply arp_rej_spec | now intros _].
Qed.

Lemma arp_set_protocol_addrs_c14 h n :
  c14_gen_set (arp_set_protocol_addrs h n n) h n arp_repr ArpProtoTooBig
    (fun h' => ar_proto_size h' = n /\ ar_hw_size h' = ar_hw_size h /\ ar_rest h' = ar_rest h).
Proof.
  rewrite arp_set_protocol_addrs_eq. apply c14_gen_set_if; [apply arp_rej_spec | now intros _].
Qed.

Lemma arp_set_non_matching h s t : s <> t ->
  arp_set_hw_addrs h s t = (Err (ArpHwNonMatching s t), h) /\
  arp_set_protocol_addrs h s t = (Err (ArpProtoNonMatching s t), h).
Proof.
  intros Hn. unfold arp_set_hw_addrs, arp_set_protocol_addrs.
  destruct (N.eqb_spec s t); [contradiction|]. split; reflexivity.
Qed.

Definition transport_wf (t : transport) : Prop :=
  match t with TTcp h => tcp_wf h | TIcmpv4 l => l <= 20 | _ => True end.
Lemma transport_len_bound t : transport_wf t -> transport_header_len t <= 60.
Proof. destruct t; cbn; unfold tcp_wf, tcp_header_len, UDP_LEN; intros; lia. Qed.

Lemma build_ip_payload_eq e t v : e + transport_header_len t + v < 2 ^ 64 ->
  build_ip_payload e t v = Ok (e + transport_header_len t + v).
Proof.
  intros Hlt. unfold build_ip_payload. rewrite add_chk_ok by (unfold USIZE; lia). cbn [bind].
  apply add_chk_ok. unfold USIZE. lia.
Qed.
Lemma build_udp_len_eq t v : slice_len_ok v ->
  build_udp_len t v = Ok (match t with TUdp => Some (as_u16 (8 + v)) | _ => None end).
Proof.
  unfold slice_len_ok. intros Hv. destruct t; try reflexivity.
  unfold build_udp_len, UDP_LEN. now rewrite add_chk_ok by (unfold USIZE; lia).
Qed.

Lemma build4_thr o e tl : o <= 40 -> e <= 1032 -> tl <= 60 ->
  threshold (build4_repr o e tl) (build4_max o e tl) (65515 - o - e - tl).
Proof. intros Ho He Htl. thr. Qed.
Lemma build6_thr e tl : e <= 9232 -> tl <= 60 ->
  threshold (build6_repr e tl) (build6_max e tl) (65535 - e - tl).
Proof. intros He Htl. thr. Qed.

(* what the builder wrote for an accepted payload of v bytes *)
Definition built_good (ip_len : N) (t : transport) (v : N) (b : built) : Prop :=
  b_ip_len b = ip_len /\ wire16 (to_be16 (b_ip_len b)) = Some ip_len /\
  (t = TUdp -> b_udp_len b = Some (udp_hdr + v) /\ b_pseudo_len b = Some (udp_hdr + v)) /\
  (forall h, t = TTcp h -> b_pseudo_len b = Some (tcp_hdr_len (t_opt_len h) + v)) /\
  (t <> TUdp -> b_udp_len b = None).

Lemma built_good_intro ip_len t v pl : ip_len < 65536 ->
  match t with
  | TUdp => pl = Some (8 + v) | TTcp h => pl = Some (20 + t_opt_len h + v) | _ => True
  end ->
  built_good ip_len t v
    {| b_ip_len := ip_len; b_udp_len := match t with TUdp => Some (8 + v) | _ => None end;
       b_pseudo_len := pl |}.
Proof.
  intros Hlt Hp. unfold built_good. cbn [b_ip_len b_udp_len b_pseudo_len].
  rewrite wire16_to_be16 by exact Hlt. repeat apply conj; try reflexivity.
  - intros ->. now split.
  - intros h ->. exact Hp.
  - intros Hn. destruct t; try reflexivity. contradiction.
Qed.

(* the UDP length field and the lengths of the pseudo headers, as written *)
Definition udp_field (t : transport) (v : N) : option N :=
  match t with TUdp => Some (8 + v) | _ => None end.
Definition pseudo4 (t : transport) (v : N) : option N :=
  match t with TUdp => Some (8 + v) | TTcp h => Some (20 + t_opt_len h + v) | _ => None end.
Definition pseudo6 (t : transport) (v : N) : option N :=
  match t with TIcmpv6 => Some (8 + v) | _ => pseudo4 t v end.

Lemma build_ipv4_eq ip x t v : ipv4_wf ip -> v4exts_wf x -> transport_wf t -> slice_len_ok v ->
  build_ipv4 ip x t v =
  if 65515 - v4_opt_len ip <? v4x_len x + transport_header_len t + v
  then Err (BPayloadLen (mk_vtb (v4x_len x + transport_header_len t + v) (65515 - v4_opt_len ip)
                                Ipv4PayloadLength))
  else match t with
       | TIcmpv6 => Err BIcmpv6InIpv4
       | _ => Ok {| b_ip_len := 20 + v4_opt_len ip + (v4x_len x + transport_header_len t + v);
                    b_udp_len := udp_field t v; b_pseudo_len := pseudo4 t v |}
       end.
Proof.
  intros Hwf Hx Ht Hv. pose proof (v4x_len_bound x Hx) as He.
  pose proof (transport_len_bound t Ht) as Htl. pose proof Hv as Hv'. unfold slice_len_ok in Hv'.
  unfold build_ipv4. rewrite (build_udp_len_eq t v Hv), v4exts_header_len_spec. cbn [bind].
  rewrite build_ip_payload_eq by lia. cbn [bind]. rewrite (ipv4_set_payload_len_eq ip _ Hwf).
  destruct (N.ltb_spec (65515 - v4_opt_len ip) (v4x_len x + transport_header_len t + v)) as [Hb|Hb];
    [reflexivity|].
  unfold v4_set_total. cbn [v4_total_len].
  destruct t as [| |th|l|]; cbn [transport_header_len transport_wf] in *; try reflexivity.
  - unfold udp_calc_checksum_ipv4, UDP_LEN in *. cbn [u_length].
    rewrite (proj2 (N.ltb_ge _ v)) by lia. cbn [lift_vtb bind]. now rewrite as_u16_small by lia.
  - unfold tcp_calc_checksum_ipv4, tcp_header_len_u16, tcp_header_len, tcp_wf in *.
    rewrite add_chk_ok by (unfold U16; lia). cbn [bind].
    rewrite (tcp_len_eq 134 135 65535 as_u16) by (try lia; intros y Hy; apply as_u16_small; lia).
    now rewrite (proj2 (N.ltb_ge _ v)) by lia.
Qed.

Lemma build_ipv4_c14 ip x t v : ipv4_wf ip -> v4exts_wf x -> transport_wf t -> slice_len_ok v ->
  let o := v4_opt_len ip in
  let e := v4x_len x in
  let tl := transport_header_len t in
  greatest (build4_repr o e tl) (build4_max o e tl) /\
  (t <> TIcmpv6 -> ((exists b, build_ipv4 ip x t v = Ok b) <-> build4_repr o e tl v)) /\
  (build4_repr o e tl v -> t <> TIcmpv6 ->
     exists b, build_ipv4 ip x t v = Ok b /\ built_good (ipv4_hdr_len o + e + tl + v) t v b) /\
  (build4_repr o e tl v -> t = TIcmpv6 -> build_ipv4 ip x t v = Err BIcmpv6InIpv4) /\
  (~ build4_repr o e tl v ->
     build_ipv4 ip x t v = Err (BPayloadLen (mk_vtb (e + tl + v) (ipv4_max o) Ipv4PayloadLength)) /\
     ipv4_max o = build4_max o e tl + (e + tl)).
Proof.
  intros Hwf Hx Ht Hv o e tl. rewrite (build_ipv4_eq ip x t v Hwf Hx Ht Hv). fold o e tl.
  pose proof (v4x_len_bound x Hx : e <= 1032) as He.
  pose proof (transport_len_bound t Ht : tl <= 60) as Htl.
  assert (Ho : o <= 40) by exact Hwf.
  pose proof (build4_thr o e tl Ho He Htl) as Hthr.
  split; [exact (threshold_greatest _ _ _ Hthr)|]. destruct Hthr as [HR Hmx]. rewrite !HR.
  replace (ipv4_hdr_len o + e + tl + v) with (20 + o + (e + tl + v)) by (unf; lia).
  destruct (N.ltb_spec (65515 - o) (e + tl + v)) as [Hb|Hb].
  - split; [intros _; split; [intros [b Hb']; discriminate | lia]|].
    split; [lia|]. split; [lia|]. intros _.
    replace (ipv4_max o) with (65515 - o) by (unf; lia). split; [reflexivity | unf; lia].
  - split; [|split; [|split; [|lia]]].
    + intros Hn. split; [lia|]. intros _. destruct t; try contradiction; eexists; reflexivity.
    + intros _ Hn.
      destruct t as [| |th|l|]; try contradiction; eexists; (split; [reflexivity|]);
        apply built_good_intro; try lia; exact I || reflexivity.
    + intros _ ->. reflexivity.
Qed.

Lemma build_ipv6_eq ip x t v : v6exts_wf x -> transport_wf t -> slice_len_ok v ->
  build_ipv6 ip x t v =
  if 65535 <? v6x_len x + transport_header_len t + v
  then Err (BPayloadLen (mk_vtb (v6x_len x + transport_header_len t + v) 65535 Ipv6PayloadLength))
  else Ok {| b_ip_len := v6x_len x + transport_header_len t + v;
             b_udp_len := udp_field t v; b_pseudo_len := pseudo6 t v |}.
Proof.
  intros Hx Ht Hv. pose proof (v6x_len_bound x Hx) as He.
  pose proof (transport_len_bound t Ht) as Htl. pose proof Hv as Hv'. unfold slice_len_ok in Hv'.
  unfold build_ipv6. rewrite (build_udp_len_eq t v Hv), v6exts_header_len_spec. cbn [bind].
  rewrite build_ip_payload_eq by lia. cbn [bind]. rewrite ipv6_set_payload_length_eq.
  destruct (N.ltb_spec 65535 (v6x_len x + transport_header_len t + v)) as [Hb|Hb]; [reflexivity|].
  cbn [v6_payload_length].
  destruct t as [| |th|l|]; cbn [transport_header_len transport_wf] in *; try reflexivity.
  - unfold udp_calc_checksum_ipv6, UDP_LEN in *. cbn [u_length].
    rewrite (proj2 (N.ltb_ge _ v)) by lia. cbn [lift_vtb bind]. now rewrite as_u16_small by lia.
  - unfold tcp_calc_checksum_ipv6, tcp_header_len_u16, tcp_header_len, tcp_wf in *.
    rewrite add_chk_ok by (unfold U16; lia). cbn [bind].
    rewrite (tcp_len_eq 136 137 4294967295 as_u32) by (try lia; intros y Hy; apply as_u32_small; lia).
    now rewrite (proj2 (N.ltb_ge _ v)) by lia.
  - rewrite icmpv6_calc_checksum_eq. now rewrite (proj2 (N.ltb_ge _ v)) by lia.
Qed.

Lemma build_ipv6_c14 ip x t v : v6exts_wf x -> transport_wf t -> slice_len_ok v ->
  let e := v6x_len x in
  let tl := transport_header_len t in
  greatest (build6_repr e tl) (build6_max e tl) /\
  ((exists b, build_ipv6 ip x t v = Ok b) <-> build6_repr e tl v) /\
  (build6_repr e tl v ->
     exists b, build_ipv6 ip x t v = Ok b /\ built_good (e + tl + v) t v b /\
               (t = TIcmpv6 -> b_pseudo_len b = Some (icmp6_hdr + v))) /\
  (~ build6_repr e tl v ->
     build_ipv6 ip x t v = Err (BPayloadLen (mk_vtb (e + tl + v) ipv6_max Ipv6PayloadLength)) /\
     ipv6_max = build6_max e tl + (e + tl)).
Proof.
  intros Hx Ht Hv e tl. rewrite (build_ipv6_eq ip x t v Hx Ht Hv). fold e tl.
  pose proof (v6x_len_bound x Hx : e <= 9232) as He.
  pose proof (transport_len_bound t Ht : tl <= 60) as Htl.
  pose proof (build6_thr e tl He Htl) as Hthr.
  split; [exact (threshold_greatest _ _ _ Hthr)|]. destruct Hthr as [HR Hmx]. rewrite !HR.
  destruct (N.ltb_spec 65535 (e + tl + v)) as [Hb|Hb].
  - split; [split; [intros [b Hb']; discriminate | lia]|]. split; [lia|].
    intros _. split; [reflexivity | unf; lia].
  - split; [split; [lia | intros _; eexists; reflexivity]|]. split; [|lia].
    intros _. eexists. split; [reflexivity|]. split.
    + apply built_good_intro; [lia|]. now destruct t.
    + intros ->. reflexivity.
Qed.

Lemma build_size_eq lv net t v : lv + net + transport_header_len t + v < 2 ^ 64 ->
  build_size lv net t v = Ok (lv + net + transport_header_len t + v).
Proof.
  intros Hlt. unfold build_size. rewrite add_chk_ok by (unfold USIZE; lia). cbn [bind].
  rewrite add_chk_ok by (unfold USIZE; lia). cbn [bind]. apply add_chk_ok. unfold USIZE. lia.
Qed.

Lemma deciders_spec a b c d :
  (ipv4_reprb a b = true <-> ipv4_repr a b) /\ (iph4_reprb a b c = true <-> iph4_repr a b c) /\
  (ipv6_reprb a = true <-> ipv6_repr a) /\ (iph6_reprb a b = true <-> iph6_repr a b) /\
  (udp_reprb a = true <-> udp_repr a) /\ (udp6_pseudo_reprb a = true <-> udp6_pseudo_repr a) /\
  (tcp4_reprb a b = true <-> tcp4_repr a b) /\ (tcp6_reprb a b = true <-> tcp6_repr a b) /\
  (icmp6_reprb a = true <-> icmp6_repr a) /\ (ipv4_opts_reprb a = true <-> ipv4_opts_repr a) /\
  (tcp_opts_reprb a = true <-> tcp_opts_repr a) /\ (ah_reprb a = true <-> ah_repr a) /\
  (ext_reprb a = true <-> ext_repr a) /\ (arp_reprb a = true <-> arp_repr a) /\
  (build4_reprb a b c d = true <-> build4_repr a b c d) /\
  (build6_reprb a b c = true <-> build6_repr a b c) /\
  (forall u, macsec_reprb u a = true <-> macsec_repr u a).
Proof.
  (* all but three are one field test *)
  repeat match goal with |- _ /\ _ => split end; try (intros; apply fitsb_spec).
  - apply ipv4_opts_reprb_spec.
  - apply ah_reprb_spec.
  - apply ext_reprb_spec.
Qed.
