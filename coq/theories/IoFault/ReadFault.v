(* IoFault/ReadFault.v -- property C16, reader half:
   "every point at which the underlying reader fails ... returns that I/O error -
   neither panics nor reports success".

   For EVERY read program (any data-dependent sequence of read_exact / start_layer /
   LimitedReader::new), every data, every chunk size >= 1, both end-of-data
   behaviours (Err(Other) / Ok(0) = UnexpectedEof) and every starting state
   (plain or inside a LimitedReader):

     let the run on the data d consume k bytes with outcome q.  Then
       * the outcome depends on the first k bytes only: on every source that ends
         at j >= k the run gives the same outcome q, the same LimitedReader state
         and has consumed the same k bytes;
       * on every source that ends at j < k the run answers QIo with the error
         kind of the source (never QOk, never Len/Content, never QBad / QFuel /
         QUnderflow) and has consumed exactly the j bytes there were.

   The statement is about `run_r` + std's `read_exact` loop: that a crate reader
   propagates every error of `read_exact` is part of the transliteration
   (PRead = `reader.read_exact(..)?`), see IoFault/Propagate.v for the language
   in which swallowing is expressible. *)
From EP Require Import Base.Bytes Base.Lists IoFault.Spec IoFault.Model IoFault.Proofs.
Local Open Scope N_scope.

(* the source that ends after j (more) bytes *)
Definition cut_src (j : N) (s : fsource) : fsource :=
  mk_fsource (take j (src_data s)) (src_chunk s) (src_err s) (src_pulled s).
Definition cut_st (j : N) (st : rstate) : rstate :=
  mk_rstate (cut_src j (rs_src st)) (rs_lim st).

Lemma cut_src_all j s : len (src_data s) <= j -> cut_src j s = s.
Proof. intros H. unfold cut_src. rewrite take_all by exact H. destruct s; reflexivity. Qed.

Lemma adv_adv a b s : adv_src b (adv_src a s) = adv_src (a + b) s.
Proof.
  unfold adv_src. cbn [src_data src_chunk src_err src_pulled]. rewrite drop_drop. f_equal. lia.
Qed.

Lemma cut_adv j k s : k <= j -> cut_src (j - k) (adv_src k s) = adv_src k (cut_src j s).
Proof.
  intros H. unfold cut_src, adv_src. cbn [src_data src_chunk src_err src_pulled].
  now rewrite drop_take_sub.
Qed.

Lemma io_read_exact_cut_ok s n j : 1 <= src_chunk s -> n <= len (src_data s) -> n <= j ->
  io_read_exact (cut_src j s) n = (XOk (take n (src_data s)), cut_src (j - n) (adv_src n s)).
Proof.
  intros Hc Hn Hj. rewrite io_read_exact_ok.
  - unfold cut_src at 1 2 3 4 5. cbn [src_data src_chunk src_err src_pulled].
    rewrite take_take by exact Hj. rewrite cut_adv by exact Hj. reflexivity.
  - exact Hc.
  - unfold cut_src. cbn [src_data]. rewrite len_take. lia.
Qed.

Lemma io_read_exact_cut_fail s n j : 1 <= src_chunk s -> j <= len (src_data s) -> j < n ->
  io_read_exact (cut_src j s) n = (XIo (src_kind s), dead_src j s).
Proof.
  intros Hc Hj Hn. rewrite io_read_exact_fail.
  - unfold cut_src, dead_src, src_kind. cbn [src_data src_chunk src_err src_pulled].
    rewrite len_take. rewrite N.min_l by exact Hj. reflexivity.
  - exact Hc.
  - unfold cut_src. cbn [src_data]. rewrite len_take. lia.
Qed.

(* F, a run as a function of its source, is determined by a prefix of the data:
   on s it consumes k bytes; on the source cut at j >= k it does the same; cut
   before k it answers the source's error, having consumed the j bytes there were *)
Definition cuts (F : fsource -> qres (list N) * rstate) (s : fsource) : Prop :=
  exists k, k <= len (src_data s) /\ rs_src (snd (F s)) = adv_src k s /\
    forall j,
      (j < k -> fst (F (cut_src j s)) = QIo (src_kind s) /\
                rs_src (snd (F (cut_src j s))) = dead_src j s) /\
      (k <= j -> F (cut_src j s) = (fst (F s), cut_st (j - k) (snd (F s)))).

Lemma cuts_ext F G s : (forall s', F s' = G s') -> cuts G s -> cuts F s.
Proof.
  intros E (k & K1 & K2 & K). exists k. rewrite E. split; [exact K1|]. split; [exact K2|].
  intros j. rewrite E. exact (K j).
Qed.

(* a step that does not touch the source *)
Lemma cuts_const q l s : cuts (fun s' => (q, mk_rstate s' l)) s.
Proof.
  exists 0. cbn [fst snd rs_src]. split; [lia|]. split; [now rewrite adv_src_0|].
  intros j. split; [lia|]. intros _. now rewrite N.sub_0_r.
Qed.

Lemma cuts_pull n lim after s : 1 <= src_chunk s ->
  (n <= len (src_data s) -> cuts (after (take n (src_data s))) (adv_src n s)) ->
  cuts (pull n lim after) s.
Proof.
  intros Hc IH. destruct (N.le_gt_cases n (len (src_data s))) as [E|E].
  - (* the full source has the n bytes *)
    destruct (IH E) as (k & K1 & K2 & K). cbn [adv_src src_data] in K1. rewrite len_drop in K1.
    exists (n + k). rewrite pull_ok by assumption. split; [lia|]. split; [now rewrite K2, adv_adv|].
    intros j. unfold pull. split; intros Hj.
    + destruct (N.lt_ge_cases j n) as [Hjn|Hjn].
      * rewrite io_read_exact_cut_fail by (assumption || lia). auto.
      * rewrite io_read_exact_cut_ok by assumption. destruct (K (j - n)) as [[Ka Kb] _]; [lia|].
        split; [exact Ka|]. rewrite Kb. unfold dead_src, adv_src. cbn [src_chunk src_err src_pulled].
        f_equal. lia.
    + rewrite io_read_exact_cut_ok by (assumption || lia). destruct (K (j - n)) as [_ Kc].
      rewrite Kc by lia. now rewrite N.sub_add_distr.
  - (* the full source fails in this read_exact *)
    exists (len (src_data s)). rewrite pull_fail by assumption. cbn [fst snd rs_src]. split; [lia|].
    split; [unfold dead_src, adv_src; now rewrite drop_all by lia|].
    intros j. split; intros Hj.
    + unfold pull. rewrite io_read_exact_cut_fail by (assumption || lia). auto.
    + rewrite cut_src_all, pull_fail by assumption.
      unfold cut_st, cut_src, dead_src. cbn [rs_src rs_lim src_data src_chunk src_err src_pulled].
      now rewrite take_nil.
Qed.

Lemma run_r_cut p : forall lim s, 1 <= src_chunk s -> cuts (fun s' => run_r p (mk_rstate s' lim)) s.
Proof.
  induction p as [a|c|e| | |n k IH|layer k IH|m ls off layer k IH]; intros lim s Hc.
  1-5: apply cuts_const.
  - destruct lim as [r|].
    + apply (cuts_ext _ _ _ (fun s' => run_r_PRead_lim n k s' r)).
      destruct (checked_sub (lr_max r) (lr_read r)) as [rem|]; [|apply cuts_const].
      destruct (rem <? n); [apply cuts_const|].
      apply cuts_pull; [exact Hc|]. intros _. apply IH. exact Hc.
    + apply (cuts_pull n None (fun bs s' => run_r (k bs) (mk_rstate s' None))); [exact Hc|].
      intros _. apply IH. exact Hc.
  - destruct lim as [r|]; [|apply cuts_const]. cbn [run_r rs_lim rs_src].
    destruct (lr_start_layer r layer); [apply IH; exact Hc | apply cuts_const].
  - destruct lim as [r|]; [apply cuts_const | apply IH; exact Hc].
Qed.

Definition start_st (d : bytes) (c : N) (e : bool) (lim : option limrd) : rstate :=
  mk_rstate (mk_fsource d c e 0) lim.
Definition io_kind (e : bool) : iokind := if e then KOther else KEof.

(* any outcome *)
Lemma read_fault_any p d c e lim : 1 <= c ->
  let r := run_r p (start_st d c e lim) in
  let k := src_pulled (rs_src (snd r)) in
  k <= len d /\ src_data (rs_src (snd r)) = drop k d /\
  (forall j, j < k ->
     let rj := run_r p (start_st (take j d) c e lim) in
     fst rj = QIo (io_kind e) /\ src_pulled (rs_src (snd rj)) = j /\ src_data (rs_src (snd rj)) = []) /\
  (forall j, k <= j ->
     let rj := run_r p (start_st (take j d) c e lim) in
     fst rj = fst r /\ src_pulled (rs_src (snd rj)) = k /\ rs_lim (snd rj) = rs_lim (snd r)
     /\ src_data (rs_src (snd rj)) = drop k (take j d)).
Proof.
  intros Hc r k. unfold start_st in *.
  destruct (run_r_cut p lim (mk_fsource d c e 0) Hc) as (k0 & K1 & K2 & K).
  unfold cut_src in K. cbn [src_data src_chunk src_err src_pulled] in K, K2. fold r in K, K2.
  assert (E : k0 = k) by (unfold k; rewrite K2; apply N.add_0_l). subst k0.
  split; [exact K1|]. split; [now rewrite K2|]. split; intros j Hj.
  - destruct (K j) as [[Ka Kb] _]; [exact Hj|].
    split; [exact Ka|]. rewrite Kb. split; [apply N.add_0_l | reflexivity].
  - destruct (K j) as [_ Kc]. specialize (Kc Hj). rewrite Kc.
    cbn [fst snd cut_st rs_src rs_lim cut_src src_pulled src_data].
    rewrite K2. cbn [adv_src src_data]. now rewrite drop_take_sub.
Qed.

(* a successful run *)
Lemma read_fault_ok p d c e lim a st' : 1 <= c ->
  run_r p (start_st d c e lim) = (QOk a, st') ->
  let k := src_pulled (rs_src st') in
  k <= len d /\ src_data (rs_src st') = drop k d /\
  (forall j, j < k ->
     let rj := run_r p (start_st (take j d) c e lim) in
     fst rj = QIo (io_kind e) /\ src_pulled (rs_src (snd rj)) = j) /\
  (exists st'', run_r p (start_st (take k d) c e lim) = (QOk a, st'')
                /\ src_pulled (rs_src st'') = k /\ src_data (rs_src st'') = [] /\ rs_lim st'' = rs_lim st').
Proof.
  intros Hc Hrun k. pose proof (read_fault_any p d c e lim Hc) as H. cbn zeta in H.
  rewrite Hrun in H. cbn [fst snd] in H. fold k in H. destruct H as (H1 & H2 & H3 & H4).
  split; [exact H1|]. split; [exact H2|]. split.
  - intros j Hj rj. destruct (H3 j Hj) as (A & B & _). split; assumption.
  - destruct (H4 k (N.le_refl k)) as (A & B & C & D).
    destruct (run_r p (start_st (take k d) c e lim)) as [q st''] eqn:E. cbn [fst snd] in *.
    exists st''. subst q. split; [reflexivity|]. split; [exact B|]. split; [|exact C].
    rewrite D. apply drop_all. rewrite len_take. lia.
Qed.

(* what the two position clauses of crate_readers_fault say of one program *)
Lemma fault_view p d c e lim j : 1 <= c ->
  let r := run_r p (start_st d c e lim) in
  let rj := run_r p (start_st (take j d) c e lim) in
  (j < src_pulled (rs_src (snd r)) -> fst rj = QIo (io_kind e) /\ src_pulled (rs_src (snd rj)) = j) /\
  (src_pulled (rs_src (snd r)) <= j ->
     fst rj = fst r /\ src_pulled (rs_src (snd rj)) = src_pulled (rs_src (snd r))).
Proof.
  intros Hc r rj. pose proof (read_fault_any p d c e lim Hc) as H. cbn zeta in H.
  destruct H as (_ & _ & H3 & H4). split; intros Hj.
  - destruct (H3 j Hj) as (A & B & _). now split.
  - destruct (H4 j Hj) as (A & B & _). now split.
Qed.

(* every reader of the crate that is modelled, from every starting point the
   crate uses: the plain readers on a plain reader, the extension readers on a
   plain reader or inside a LimitedReader with read_len <= max_len *)
Lemma crate_readers_fault :
  (forall p d c e j, In p plain_readers -> 1 <= c ->
     let r := run_r p (start_st d c e None) in
     let rj := run_r p (start_st (take j d) c e None) in
     good (fst r) /\
     (j < src_pulled (rs_src (snd r)) -> fst rj = QIo (io_kind e) /\ src_pulled (rs_src (snd rj)) = j) /\
     (src_pulled (rs_src (snd r)) <= j -> fst rj = fst r /\ src_pulled (rs_src (snd rj)) = src_pulled (rs_src (snd r)))) /\
  (forall (lim : bool) start lr d c e j, 1 <= c -> lr_read lr <= lr_max lr ->
     let l := if lim then Some lr else None in
     (let r := run_r (x6_read lim start) (start_st d c e l) in
      let rj := run_r (x6_read lim start) (start_st (take j d) c e l) in
      good (fst r) /\
      (j < src_pulled (rs_src (snd r)) -> fst rj = QIo (io_kind e) /\ src_pulled (rs_src (snd rj)) = j) /\
      (src_pulled (rs_src (snd r)) <= j -> fst rj = fst r /\ src_pulled (rs_src (snd rj)) = src_pulled (rs_src (snd r)))) /\
     (let r := run_r (x4_read lim start) (start_st d c e l) in
      let rj := run_r (x4_read lim start) (start_st (take j d) c e l) in
      good (fst r) /\
      (j < src_pulled (rs_src (snd r)) -> fst rj = QIo (io_kind e) /\ src_pulled (rs_src (snd rj)) = j) /\
      (src_pulled (rs_src (snd r)) <= j -> fst rj = fst r /\ src_pulled (rs_src (snd rj)) = src_pulled (rs_src (snd r))))).
Proof.
  split.
  - intros p d c e j Hin Hc r rj.
    split; [apply plain_readers_good; assumption | apply fault_view; exact Hc].
  - intros lim start lr d c e j Hc Hi l.
    destruct (ext_readers_good lim start (mk_fsource d c e 0) lr Hc Hi) as [G6 G4].
    split; intros r rj; (split; [assumption | apply fault_view; exact Hc]).
Qed.
