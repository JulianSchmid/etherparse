(* IoFault/ReadPropagate.v -- property C16: the crate's READERS in the explicit
   error-propagation language.

   IoFault/Propagate.v section E has the language `yprog` (YReadThen n k: the
   continuation sees Ok(bytes) / Err(Io) / Err(Len)), the propagating fragment
   and a reader that swallows the I/O error.  As `rprog` a reader says nothing about propagation:
   `PRead` IS `read_exact(..)?`, so "the reader returns that I/O error" is a
   property of the interpreter `run_r`.  Here every `read` / `read_limited` of the
   crate is written as the Rust source writes it:

     reader.read_exact(&mut buf)?                       ytry_map m_from n k
     reader.read_exact(&mut buf).map_err(Io)?           ytry_map m_io n k
     reader.read_exact(&mut buf).map_err(map_err)?      ytry_map m_limited n k
     let h = Callee::read(reader).map_err(f)?; k h      ycall callee (yq_call f k)
     Callee::read(reader).map(..).map_err(f)            ycall callee (yq_call f YRet)
     return Callee::read(reader)                        the callee's program

   The `map_err` closure `f` and the `match` behind `?` are PROGRAM TEXT: a
   closure that turns Io into something else, a `let _ = ..`, an `.ok()`, an
   `Err(_) => Ok(default)` are all expressible (section F) and fall outside the
   fragment.  A call is a node of its own (`ycall`): the caller sees the callee's
   Result (Ok(value) / Err(Io) / Err(Len) / Err(Content)) and decides.

   Contents
     A  pointwise equality `req` of read programs (rprog contains functions;
        Leibniz equality of `fun bs => ..` bodies would need functional
        extensionality, which is not assumed), run_r respects it
     B  errors as values, map_err closures, ytry_map, ycall, rcall
     C  agrees_r y p := propagating_r y /\ req (strip_r y) p; composition lemmas
     D  the crate's readers in explicit form
     E  each agrees with its Model.v transliteration (14 plain readers, the
        three standalone read/read_limited pairs, Ipv4Extensions / Ipv6Extensions
        ::read / ::read_limited); hence run_y = run_r on every state and the
        read-fault theorem + totality hold for the explicit programs
     F  a caller that swallows the callee's error: expressible, outside the
        fragment, answers Ok on a source that failed

   Left inside the interpreter: `LimitedReader::read_exact` itself contains
   `self.reader.read_exact(buf).map_err(Io)?`; that one `?` stays inside
   `lr_read_exact` (Model.v), i.e. in the interpreter of YReadThen.  That a crate
   function IS the program given here is transliteration, tied to the code by
   the fault-injection run (which also executes these explicit programs). *)
From EP Require Import Base.Bytes IoFault.Spec IoFault.Model IoFault.Proofs IoFault.ReadFault
  IoFault.Propagate.
Local Open Scope N_scope.

(* ================================================================ A *)
Inductive req : rprog -> rprog -> Prop :=
  | req_ret a : req (PRet a) (PRet a)
  | req_fail c : req (PFail c) (PFail c)
  | req_lenerr e : req (PLenErr e) (PLenErr e)
  | req_bad : req PBad PBad
  | req_fuel : req PFuelOut PFuelOut
  | req_read n k k' : (forall bs, req (k bs) (k' bs)) -> req (PRead n k) (PRead n k')
  | req_start layer k k' : req k k' -> req (PStart layer k) (PStart layer k')
  | req_limit m ls off layer k k' : req k k' -> req (PLimit m ls off layer k) (PLimit m ls off layer k').

Lemma req_refl p : req p p.
Proof.
  induction p as [a|c|e| | |n k IH|layer k IH|m ls off layer k IH]; constructor; auto.
Qed.

Lemma req_of_eq p q : p = q -> req p q.
Proof. intros ->. apply req_refl. Qed.

Lemma req_sym p q : req p q -> req q p.
Proof. induction 1; constructor; auto. Qed.

Lemma req_trans p q : req p q -> forall r, req q r -> req p r.
Proof.
  induction 1 as [a|c|e| | |n k k' Hk IH|layer k k' Hk IH|m ls off layer k k' Hk IH];
    intros r Hr; try exact Hr.
  - inversion Hr as [ | | | | |n0 k0 k'' Hk'| | ]; subst. constructor. intros bs. apply IH, Hk'.
  - inversion Hr as [ | | | | | |layer0 k0 k'' Hk'| ]; subst. constructor. apply IH, Hk'.
  - inversion Hr as [ | | | | | | |m0 ls0 off0 layer0 k0 k'' Hk']; subst. constructor. apply IH, Hk'.
Qed.

Lemma req_run p q : req p q -> forall st, run_r p st = run_r q st.
Proof.
  induction 1 as [a|c|e| | |n k k' Hk IH|layer k k' Hk IH|m ls off layer k k' Hk IH];
    intros st; cbn [run_r]; try reflexivity.
  - destruct (rs_lim st) as [r|].
    + destruct (lr_read_exact r (rs_src st) n) as [[[bs|e|e|c| | | ] r'] s']; try reflexivity. apply IH.
    + destruct (io_read_exact (rs_src st) n) as [[bs|e| | ] s']; try reflexivity. apply IH.
  - destruct (rs_lim st) as [r|]; [|reflexivity]. destruct (lr_start_layer r layer); [apply IH | reflexivity].
  - destruct (rs_lim st) as [r|]; [reflexivity | apply IH].
Qed.

(* ================================================================ B *)
(* the error half of a Result as a value *)
Inductive yerr := EIo (k : iokind) | ELen (e : lenerr) | EContent (c : cerr).

(* return Err(e) *)
Definition yraise (e : yerr) : yprog :=
  match e with EIo k => YIoErr k | ELen l => YLenErr l | EContent c => YFail c end.

(* the map_err closures of the crate (cerr has no nesting: Content(IpAuth(err)),
   Content(Ipv4Ext(err)), Content(Ipv6Ext(err)) keep the inner error) *)
(* `?` alone: From::from, the error type stays / is wrapped variant by variant *)
Definition m_from (e : yerr) : yerr := e.
(* .map_err(Io): the operand's error type is std::io::Error *)
Definition m_io (e : yerr) : yerr := match e with EIo k => EIo k | o => o end.
(* fn map_err / map_limited_err (LimitedReadError): I::Io(err) => Io(err), I::Len(err) => Len(err) *)
Definition m_limited (e : yerr) : yerr :=
  match e with EIo k => EIo k | ELen l => ELen l | o => o end.
(* |err| match err { I::Io(err) => Io(err), I::Len(err) => Len(err), I::Content(err) => Content(Wrap(err)) } *)
Definition m_content (e : yerr) : yerr :=
  match e with EIo k => EIo k | ELen l => ELen l | EContent c => EContent c end.

(* a closure that keeps every error what it is *)
Definition m_ok (f : yerr -> yerr) : Prop := forall e, f e = e.
Lemma m_from_ok : m_ok m_from. Proof. intros e. reflexivity. Qed.
Lemma m_io_ok : m_ok m_io. Proof. intros [k|l|c]; reflexivity. Qed.
Lemma m_limited_ok : m_ok m_limited. Proof. intros [k|l|c]; reflexivity. Qed.
Lemma m_content_ok : m_ok m_content. Proof. intros [k|l|c]; reflexivity. Qed.

(* what read_exact returned, as a Result *)
Definition rd_result (r : rdres) : bytes + yerr :=
  match r with DOk bs => inl bs | DIo e => inr (EIo e) | DLen e => inr (ELen e) end.

(* reader.read_exact(&mut buf[..n]).map_err(f)?; k buf *)
Definition ytry_map (f : yerr -> yerr) (n : N) (k : bytes -> yprog) : yprog :=
  YReadThen n (fun r => match rd_result r with inl bs => k bs | inr e => yraise (f e) end).

(* match callee(reader) { r => k r }: every leaf of the callee is a returned Result *)
Fixpoint ycall (a : yprog) (k : list N + yerr -> yprog) : yprog :=
  match a with
  | YRet v => k (inl v)
  | YFail c => k (inr (EContent c))
  | YLenErr e => k (inr (ELen e))
  | YIoErr e => k (inr (EIo e))
  | YBad => YBad
  | YFuelOut => YFuelOut
  | YReadThen n g => YReadThen n (fun r => ycall (g r) k)
  | YStart layer p => YStart layer (ycall p k)
  | YLimit m ls off layer p => YLimit m ls off layer (ycall p k)
  end.

(* callee(reader).map_err(f)?  followed by k *)
Definition yq_call (f : yerr -> yerr) (k : list N -> yprog) : list N + yerr -> yprog :=
  fun r => match r with inl v => k v | inr e => yraise (f e) end.

(* the same on read programs: only the Ok leaves continue *)
Fixpoint rcall (p : rprog) (k : list N -> rprog) : rprog :=
  match p with
  | PRet v => k v
  | PFail c => PFail c
  | PLenErr e => PLenErr e
  | PBad => PBad
  | PFuelOut => PFuelOut
  | PRead n g => PRead n (fun bs => rcall (g bs) k)
  | PStart layer q => PStart layer (rcall q k)
  | PLimit m ls off layer q => PLimit m ls off layer (rcall q k)
  end.

Lemma rcall_req p p' : req p p' -> forall k k', (forall v, req (k v) (k' v)) ->
  req (rcall p k) (rcall p' k').
Proof.
  induction 1 as [a|c|e| | |n g g' Hg IH|layer g g' Hg IH|m ls off layer g g' Hg IH];
    intros k k' Hk; cbn [rcall]; try (constructor; auto; fail).
  apply Hk.
Qed.

Lemma rcall_ret p : req (rcall p PRet) p.
Proof.
  induction p as [a|c|e| | |n k IH|layer k IH|m ls off layer k IH]; cbn [rcall]; constructor; auto.
Qed.

(* ================================================================ C *)
(* in the fragment, and the success path is (pointwise) the Model.v program *)
Definition agrees_r (y : yprog) (p : rprog) : Prop := propagating_r y /\ req (strip_r y) p.

Lemma agrees_r_run y p : agrees_r y p -> forall st, run_y y st = run_r p st.
Proof. intros [H1 H2] st. rewrite (run_y_strip y H1). apply req_run. exact H2. Qed.

Lemma agrees_r_req y p q : agrees_r y p -> req p q -> agrees_r y q.
Proof. intros [H1 H2] H. split; [exact H1 | exact (req_trans _ _ H2 _ H)]. Qed.

Lemma agrees_r_ret a : agrees_r (YRet a) (PRet a).
Proof. split; constructor. Qed.
Lemma agrees_r_fail c : agrees_r (YFail c) (PFail c).
Proof. split; constructor. Qed.
Lemma agrees_r_lenerr e : agrees_r (YLenErr e) (PLenErr e).
Proof. split; constructor. Qed.
Lemma agrees_r_bad : agrees_r YBad PBad.
Proof. split; constructor. Qed.
Lemma agrees_r_fuel : agrees_r YFuelOut PFuelOut.
Proof. split; constructor. Qed.

Lemma agrees_r_try f n k k' : m_ok f -> (forall bs, agrees_r (k bs) (k' bs)) ->
  agrees_r (ytry_map f n k) (PRead n k').
Proof.
  intros Hf Hk. unfold ytry_map. split.
  - apply propr_read.
    + intros e. cbn [rd_result]. rewrite Hf. reflexivity.
    + intros e. cbn [rd_result]. rewrite Hf. reflexivity.
    + intros bs. cbn [rd_result]. apply Hk.
  - cbn [strip_r rd_result]. apply req_read. intros bs. apply Hk.
Qed.

Lemma agrees_r_start layer k k' : agrees_r k k' -> agrees_r (YStart layer k) (PStart layer k').
Proof. intros [H1 H2]. split; [constructor; exact H1 | cbn [strip_r]; constructor; exact H2]. Qed.

Lemma agrees_r_limit m ls off layer k k' : agrees_r k k' ->
  agrees_r (YLimit m ls off layer k) (PLimit m ls off layer k').
Proof. intros [H1 H2]. split; [constructor; exact H1 | cbn [strip_r]; constructor; exact H2]. Qed.

(* checked index into a buffer that was just filled *)
Definition y_at (bs : bytes) (i : N) (k : N -> yprog) : yprog :=
  match rd bs i with Some v => k v | None => YBad end.

Lemma agrees_r_at bs i k k' : (forall v, agrees_r (k v) (k' v)) -> agrees_r (y_at bs i k) (at_ bs i k').
Proof. intros H. unfold y_at, at_. destruct (rd bs i); [apply H | apply agrees_r_bad]. Qed.

(* the value a callee returns is a list; the callers use its first entry (the
   header's next_header) *)
Definition y_hd (v : list N) (k : N -> yprog) : yprog :=
  match v with nh :: _ => k nh | [] => YBad end.
Definition r_hd (v : list N) (k : N -> rprog) : rprog :=
  match v with nh :: _ => k nh | [] => PBad end.

Lemma agrees_r_hd k k' : (forall nh, agrees_r (k nh) (k' nh)) -> forall v, agrees_r (y_hd v k) (r_hd v k').
Proof. intros H [|nh t]; [apply agrees_r_bad | apply H]. Qed.

(* calls *)
Lemma propr_ycall a : propagating_r a -> forall f k, m_ok f -> (forall v, propagating_r (k v)) ->
  propagating_r (ycall a (yq_call f k)).
Proof.
  induction 1 as [v|c|e| | |n g Hio Hlen Hg IH|layer g Hg IH|m ls off layer g Hg IH];
    intros f k Hf Hk; cbn [ycall yq_call].
  - apply Hk.
  - rewrite Hf. constructor.
  - rewrite Hf. constructor.
  - constructor.
  - constructor.
  - apply propr_read.
    + intros e. rewrite Hio. cbn [ycall yq_call]. rewrite Hf. reflexivity.
    + intros e. rewrite Hlen. cbn [ycall yq_call]. rewrite Hf. reflexivity.
    + intros bs. apply IH; assumption.
  - constructor. apply IH; assumption.
  - constructor. apply IH; assumption.
Qed.

Lemma strip_ycall a : propagating_r a -> forall f k, m_ok f ->
  req (strip_r (ycall a (yq_call f k))) (rcall (strip_r a) (fun v => strip_r (k v))).
Proof.
  induction 1 as [v|c|e| | |n g Hio Hlen Hg IH|layer g Hg IH|m ls off layer g Hg IH];
    intros f k Hf; cbn [ycall yq_call strip_r rcall].
  - apply req_refl.
  - rewrite Hf. constructor.
  - rewrite Hf. constructor.
  - constructor.
  - constructor.
  - constructor. intros bs. apply IH. exact Hf.
  - constructor. apply IH. exact Hf.
  - constructor. apply IH. exact Hf.
Qed.

(* callee(reader).map_err(f)?; k  --  pa the callee's Model.v program, kr the
   caller's continuation, q the Model.v program of the whole (in continuation-
   passing form there) *)
Lemma agrees_r_call a pa f k kr q : agrees_r a pa -> m_ok f -> (forall v, agrees_r (k v) (kr v)) ->
  req (rcall pa kr) q -> agrees_r (ycall a (yq_call f k)) q.
Proof.
  intros [A1 A2] Hf Hk Hq. split.
  - apply propr_ycall; [exact A1 | exact Hf | intros v; apply Hk].
  - apply (req_trans _ _ (strip_ycall a A1 f k Hf)).
    apply (req_trans _ (rcall pa kr)); [|exact Hq].
    apply rcall_req; [exact A2 | intros v; apply Hk].
Qed.

Lemma call_propagates a f k : propagating_r a -> m_ok f -> (forall v, propagating_r (k v)) ->
  propagating_r (ycall a (yq_call f k)) /\
  req (strip_r (ycall a (yq_call f k))) (rcall (strip_r a) (fun v => strip_r (k v))).
Proof. intros Ha Hf Hk. exact (conj (propr_ycall a Ha f k Hf Hk) (strip_ycall a Ha f k Hf)). Qed.

(* req is an equivalence respected by run_r *)
Lemma req_equiv_run :
  (forall p, req p p) /\ (forall p q, req p q -> req q p) /\
  (forall p q r, req p q -> req q r -> req p r) /\
  (forall p q, req p q -> forall st, run_r p st = run_r q st).
Proof.
  exact (conj req_refl (conj req_sym (conj (fun p q r H1 H2 => req_trans p q H1 r H2) req_run))).
Qed.

(* ================================================================ D *)
(* Ethernet2Header(14) SingleVlanHeader(4) LinuxSllHeader(16; the content check
   of from_bytes is not part of read_fixed) Ipv6FragmentHeader(8) UdpHeader(8)
   Icmpv6Header(8) ::read:
       let mut buffer = [0; LEN]; reader.read_exact(&mut buffer)?; Ok(..) *)
Definition y_read_fixed (n : N) : yprog := ytry_map m_from n (fun _ => YRet []).

(* Ipv4Header::read_without_version:
       reader.read_exact(&mut header_raw[1..]).map_err(Io)?;
       if ihl < 5 { return Err(Content(..)) }
       if false == options.is_empty() { reader.read_exact(options.as_mut()).map_err(Io)?; } *)
Definition y_ipv4_read_without_version (first_byte : N) : yprog :=
  ytry_map m_io 19 (fun _ =>
    let ihl := first_byte mod 16 in
    if ihl <? 5 then YFail CIhl
    else
      let options_len := (ihl - 5) * 4 in
      if options_len =? 0 then YRet [20]
      else ytry_map m_io options_len (fun _ => YRet [20 + options_len])).

(* Ipv4Header::read:
       reader.read_exact(&mut first_byte).map_err(Io)?;
       if 4 != version_number { return Err(Content(UnexpectedVersion)) }
       Ipv4Header::read_without_version(reader, first_byte[0])        (returned) *)
Definition y_ipv4_header_read : yprog :=
  ytry_map m_io 1 (fun b => y_at b 0 (fun v =>
    if v / 16 =? 4 then y_ipv4_read_without_version v else YFail CVersion)).

(* Ipv6Header::read_without_version: reader.read_exact(&mut buffer[..])?; Ok(Ipv6Header{..})
   (the value is the 39-byte buffer) *)
Definition y_ipv6_read_without_version : yprog := ytry_map m_from 39 (fun buffer => YRet buffer).

(* Ipv6Header::read:
       reader.read_exact(&mut value).map_err(Io)?;
       if 6 != version_number { return Err(Content(..)) }
       Ipv6Header::read_without_version(reader, value[0] & 0xf).map_err(Io) *)
Definition y_ipv6_header_read : yprog :=
  ytry_map m_io 1 (fun b => y_at b 0 (fun v =>
    if v / 16 =? 6 then ycall y_ipv6_read_without_version (yq_call m_io (fun _ => YRet [40]))
    else YFail CVersion)).

(* TcpHeader::read:
       reader.read_exact(&mut raw).map_err(Io)?;
       if data_offset < 5 { return Err(Content(..)) }
       if options.len > 0 { reader.read_exact(&mut options.buf[..len]).map_err(Io)?; } *)
Definition y_tcp_header_read : yprog :=
  ytry_map m_io 20 (fun raw => y_at raw 12 (fun v =>
    let data_offset := v / 16 in
    if data_offset <? 5 then YFail CDataOffset
    else
      let olen := (data_offset - 5) * 4 in
      if 0 <? olen then ytry_map m_io olen (fun _ => YRet [20 + olen]) else YRet [20])).

(* Icmpv4Header::read:
       reader.read_exact(&mut bytes[..8])?;
       TYPE_TIMESTAMP_REPLY | TYPE_TIMESTAMP if 0 == bytes[1] =>
         reader.read_exact(&mut bytes[8..20])?; *)
Definition y_icmpv4_header_read : yprog :=
  ytry_map m_from 8 (fun bytes => y_at bytes 0 (fun ty => y_at bytes 1 (fun code =>
    if (ty =? 14) || (ty =? 13) then
      if code =? 0 then ytry_map m_from 12 (fun _ => YRet [20]) else YRet [8]
    else YRet [8]))).

(* MacsecHeader::read:
       reader.read_exact(&mut bytes[..6]).map_err(Io)?;   two content checks;
       if required_len > 6 { reader.read_exact(&mut bytes[6..required_len]).map_err(Io)?; } *)
Definition y_macsec_header_read : yprog :=
  ytry_map m_io 6 (fun bytes => y_at bytes 0 (fun tci_an => y_at bytes 1 (fun b1 =>
    if N.testbit tci_an 7 then YFail CMacsecVersion
    else
      let unmodified := N.land tci_an 12 =? 0 in
      if unmodified && (b1 mod 64 =? 1) then YFail CMacsecShortLen
      else
        let required_len := 6 + (if unmodified then 2 else 0) + (if N.testbit tci_an 5 then 8 else 0) in
        if 6 <? required_len then ytry_map m_io (required_len - 6) (fun _ => YRet [required_len])
        else YRet [required_len]))).

(* ArpPacket::read: five times  reader.read_exact(..)?; *)
Definition y_arp_packet_read : yprog :=
  ytry_map m_from 8 (fun start => y_at start 4 (fun hw => y_at start 5 (fun proto =>
    ytry_map m_from hw (fun _ => ytry_map m_from proto (fun _ =>
    ytry_map m_from hw (fun _ => ytry_map m_from proto (fun _ =>
      YRet [8 + 2 * hw + 2 * proto]))))))).

(* reader.start_layer(layer)  in the read_limited variants *)
Definition y_with_start (lim : bool) (layer : N) (k : yprog) : yprog :=
  if lim then YStart layer k else k.

(* IpAuthHeader::read (lim = false):   reader.read_exact(&mut start).map_err(Io)?; ..
                                        reader.read_exact(&mut buffer[..]).map_err(Io)?
   IpAuthHeader::read_limited (true):  reader.start_layer(Layer::IpAuthHeader);
                                        reader.read_exact(&mut start).map_err(map_err)?; ..
                                        reader.read_exact(&mut buffer[..]).map_err(map_err)?
   value: [next_header] *)
Definition m_auth (lim : bool) : yerr -> yerr := if lim then m_limited else m_io.

Definition y_ip_auth_read (lim : bool) : yprog :=
  y_with_start lim L_AUTH
    (ytry_map (m_auth lim) 12 (fun start => y_at start 0 (fun next_header => y_at start 1 (fun payload_len =>
      if payload_len <? 1 then YFail CAuthZeroLen
      else ytry_map (m_auth lim) ((payload_len - 1) * 4) (fun _ => YRet [next_header]))))).

(* Ipv6RawExtHeader::read / read_limited: reader.read_exact(&mut d)?;
       reader.read_exact(&mut buffer[..usize::from(header_length) * 8 + 6])?; *)
Definition y_ipv6_raw_ext_read (lim : bool) : yprog :=
  y_with_start lim L_IPV6EXT
    (ytry_map m_from 2 (fun d => y_at d 0 (fun next_header => y_at d 1 (fun header_length =>
      ytry_map m_from (header_length * 8 + 6) (fun _ => YRet [next_header]))))).

(* Ipv6FragmentHeader::read / read_limited: reader.read_exact(&mut buffer)?; *)
Definition y_ipv6_frag_read (lim : bool) : yprog :=
  y_with_start lim L_IPV6FRAG
    (ytry_map m_from 8 (fun b => y_at b 0 (fun next_header => YRet [next_header]))).

(* Ipv4Extensions::read / read_limited:
       if AUTH == start_ip_number { let header = IpAuthHeader::read(reader)?; .. } *)
Definition y_x4_read (lim : bool) (start_ip_number : N) : yprog :=
  if AUTH =? start_ip_number then
    ycall (y_ip_auth_read lim) (yq_call m_from (fun v => y_hd v (fun next => YRet [next; 1])))
  else YRet [start_ip_number; 0].

(* Ipv6Extensions::read:          Ipv6RawExtHeader::read(reader).map_err(Io)?
                                  Ipv6FragmentHeader::read(reader).map_err(Io)?
                                  IpAuthHeader::read(reader).map_err(|err| match err {
                                     I::Io(err) => Io(err), I::Content(err) => Content(IpAuth(err)) })?
   Ipv6Extensions::read_limited:  ..::read_limited(reader).map_err(map_limited_err)?
                                  IpAuthHeader::read_limited(reader).map_err(|err| match err {
                                     I::Io(err) => Io(err), I::Len(err) => Len(err),
                                     I::Content(err) => Content(IpAuth(err)) })? *)
Definition m_x6 (lim : bool) : yerr -> yerr := if lim then m_limited else m_io.

Fixpoint y_x6_read_loop (fuel : nat) (lim : bool) (s : slots) (next_protocol : N) : yprog :=
  match fuel with
  | O => YFuelOut
  | S f =>
    let done := YRet [next_protocol; slots_mask s] in
    if next_protocol =? IPV6_HOP_BY_HOP then YFail CHopNotAtStart
    else if next_protocol =? IPV6_DEST_OPTIONS then
      if s_route s then
        if s_final s then done
        else ycall (y_ipv6_raw_ext_read lim) (yq_call (m_x6 lim) (fun v => y_hd v (fun nh =>
               y_x6_read_loop f lim (mk_slots (s_hop s) (s_dest s) (s_route s) true (s_frag s) (s_auth s)) nh)))
      else if s_dest s then done
      else ycall (y_ipv6_raw_ext_read lim) (yq_call (m_x6 lim) (fun v => y_hd v (fun nh =>
             y_x6_read_loop f lim (mk_slots (s_hop s) true (s_route s) (s_final s) (s_frag s) (s_auth s)) nh)))
    else if next_protocol =? IPV6_ROUTE then
      if s_route s then done
      else ycall (y_ipv6_raw_ext_read lim) (yq_call (m_x6 lim) (fun v => y_hd v (fun nh =>
             y_x6_read_loop f lim (mk_slots (s_hop s) (s_dest s) true (s_final s) (s_frag s) (s_auth s)) nh)))
    else if next_protocol =? IPV6_FRAG then
      if s_frag s then done
      else ycall (y_ipv6_frag_read lim) (yq_call (m_x6 lim) (fun v => y_hd v (fun nh =>
             y_x6_read_loop f lim (mk_slots (s_hop s) (s_dest s) (s_route s) (s_final s) true (s_auth s)) nh)))
    else if next_protocol =? AUTH then
      if s_auth s then done
      else ycall (y_ip_auth_read lim) (yq_call m_content (fun v => y_hd v (fun nh =>
             y_x6_read_loop f lim (mk_slots (s_hop s) (s_dest s) (s_route s) (s_final s) (s_frag s) true) nh)))
    else done
  end.

Definition y_x6_read (lim : bool) (start_ip_number : N) : yprog :=
  if IPV6_HOP_BY_HOP =? start_ip_number then
    ycall (y_ipv6_raw_ext_read lim) (yq_call (m_x6 lim) (fun v => y_hd v (fun nh =>
      y_x6_read_loop X6_READ_FUEL lim (mk_slots true false false false false false) nh)))
  else y_x6_read_loop X6_READ_FUEL lim no_slots start_ip_number.

(* IpHeaders::read:
       reader.read_exact(&mut buf).map_err(Io)?;
       4 => if ihl < 5 { return Err(Content(..)) }
            reader.read_exact(&mut buffer[1..header_len]).map_err(Io)?;
            if total_len < header_len { return Err(Len(..)) } else { LimitedReader::new(..) };
            Ipv4Extensions::read_limited(&mut reader, header.protocol).map(..).map_err(|err| match err {
               I::Io(err) => Io(err), I::Len(err) => Len(err), I::Content(err) => Content(Ipv4Ext(err)) })
       6 => let header = Ipv6Header::read_without_version(reader, value & 0xf).map_err(Io)?;
            LimitedReader::new(..);
            Ipv6Extensions::read_limited(&mut reader, header.next_header).map(..).map_err(|err| ..)
       _ => Err(Content(Ip(UnsupportedIpVersion))) *)
Definition y_ip_headers_read : yprog :=
  ytry_map m_io 1 (fun buf => y_at buf 0 (fun value =>
    if value / 16 =? 4 then
      let ihl := value mod 16 in
      if ihl <? 5 then YFail CIhl
      else
        let header_len := ihl * 4 in
        ytry_map m_io (header_len - 1) (fun rest =>
          y_at rest 1 (fun t0 => y_at rest 2 (fun t1 => y_at rest 8 (fun protocol =>
            let total_len := t0 * 256 + t1 in
            if total_len <? header_len then
              YLenErr (mk_lenerr header_len total_len LS_IPV4_TOTAL L_IPV4PKT 0)
            else
              YLimit (total_len - header_len) LS_IPV4_TOTAL header_len L_IPV4H
                     (ycall (y_x4_read true protocol) (yq_call m_content YRet))))))
    else if value / 16 =? 6 then
      ycall y_ipv6_read_without_version (yq_call m_io (fun buffer =>
        y_at buffer 3 (fun p0 => y_at buffer 4 (fun p1 => y_at buffer 5 (fun next_header =>
          YLimit (p0 * 256 + p1) LS_IPV6_PAYLOAD 40 L_IPV6H
                 (ycall (y_x6_read true next_header) (yq_call m_content YRet)))))))
    else YFail CVersion)).

(* every reader of the crate on a plain source, in the order of `plain_readers` *)
Definition y_plain_readers : list yprog :=
  [y_read_fixed 14; y_read_fixed 4; y_read_fixed 16; y_read_fixed 8;
   y_ipv4_header_read; y_ipv6_header_read; y_tcp_header_read; y_icmpv4_header_read;
   y_macsec_header_read; y_arp_packet_read; y_ip_headers_read;
   y_ip_auth_read false; y_ipv6_raw_ext_read false; y_ipv6_frag_read false].

(* ================================================================ E *)
Lemma agrees_r_with_start lim layer k k' : agrees_r k k' ->
  agrees_r (y_with_start lim layer k) (with_start lim layer k').
Proof. intros H. unfold y_with_start, with_start. destruct lim; [apply agrees_r_start|]; exact H. Qed.

Lemma m_auth_ok lim : m_ok (m_auth lim).
Proof. destruct lim; [apply m_limited_ok | apply m_io_ok]. Qed.
Lemma m_x6_ok lim : m_ok (m_x6 lim).
Proof. exact (m_auth_ok lim). Qed.

Lemma agrees_read_fixed n : agrees_r (y_read_fixed n) (read_fixed n).
Proof. apply agrees_r_try; [apply m_from_ok | intros; apply agrees_r_ret]. Qed.

Lemma agrees_ipv4_rwv v : agrees_r (y_ipv4_read_without_version v) (ipv4_read_without_version v).
Proof.
  unfold y_ipv4_read_without_version, ipv4_read_without_version.
  apply agrees_r_try; [apply m_io_ok|]. intros _. cbv zeta.
  destruct (v mod 16 <? 5); [apply agrees_r_fail|].
  destruct ((v mod 16 - 5) * 4 =? 0); [apply agrees_r_ret|].
  apply agrees_r_try; [apply m_io_ok | intros; apply agrees_r_ret].
Qed.

Lemma agrees_ipv4_header_read : agrees_r y_ipv4_header_read ipv4_header_read.
Proof.
  apply agrees_r_try; [apply m_io_ok|]. intros b. apply agrees_r_at. intros v.
  destruct (v / 16 =? 4); [apply agrees_ipv4_rwv | apply agrees_r_fail].
Qed.

Lemma agrees_ipv6_rwv : agrees_r y_ipv6_read_without_version (ipv6_read_without_version PRet).
Proof. apply agrees_r_try; [apply m_from_ok | intros; apply agrees_r_ret]. Qed.

(* a call of read_without_version followed by k = the Model.v program in
   continuation-passing form *)
Lemma agrees_call_ipv6_rwv f k k' : m_ok f -> (forall b, agrees_r (k b) (k' b)) ->
  agrees_r (ycall y_ipv6_read_without_version (yq_call f k)) (ipv6_read_without_version k').
Proof.
  intros Hf Hk. apply (agrees_r_call _ _ f k k' _ agrees_ipv6_rwv Hf Hk).
  unfold ipv6_read_without_version. cbn [rcall]. apply req_refl.
Qed.

Lemma agrees_ipv6_header_read : agrees_r y_ipv6_header_read ipv6_header_read.
Proof.
  apply agrees_r_try; [apply m_io_ok|]. intros b. apply agrees_r_at. intros v.
  destruct (v / 16 =? 6); [|apply agrees_r_fail].
  apply agrees_call_ipv6_rwv; [apply m_io_ok | intros; apply agrees_r_ret].
Qed.

Lemma agrees_tcp_header_read : agrees_r y_tcp_header_read tcp_header_read.
Proof.
  apply agrees_r_try; [apply m_io_ok|]. intros raw. apply agrees_r_at. intros v. cbv zeta.
  destruct (v / 16 <? 5); [apply agrees_r_fail|].
  destruct (0 <? (v / 16 - 5) * 4); [|apply agrees_r_ret].
  apply agrees_r_try; [apply m_io_ok | intros; apply agrees_r_ret].
Qed.

Lemma agrees_icmpv4_header_read : agrees_r y_icmpv4_header_read icmpv4_header_read.
Proof.
  apply agrees_r_try; [apply m_from_ok|]. intros bytes. apply agrees_r_at. intros ty.
  apply agrees_r_at. intros code.
  destruct ((ty =? 14) || (ty =? 13)); [|apply agrees_r_ret].
  destruct (code =? 0); [|apply agrees_r_ret].
  apply agrees_r_try; [apply m_from_ok | intros; apply agrees_r_ret].
Qed.

Lemma agrees_macsec_header_read : agrees_r y_macsec_header_read macsec_header_read.
Proof.
  apply agrees_r_try; [apply m_io_ok|]. intros bytes. apply agrees_r_at. intros tci.
  apply agrees_r_at. intros b1. cbv zeta.
  destruct (N.testbit tci 7); [apply agrees_r_fail|].
  destruct ((N.land tci 12 =? 0) && (b1 mod 64 =? 1)); [apply agrees_r_fail|].
  destruct (6 <? 6 + (if N.land tci 12 =? 0 then 2 else 0) + (if N.testbit tci 5 then 8 else 0));
    [|apply agrees_r_ret].
  apply agrees_r_try; [apply m_io_ok | intros; apply agrees_r_ret].
Qed.

Lemma agrees_arp_packet_read : agrees_r y_arp_packet_read arp_packet_read.
Proof.
  apply agrees_r_try; [apply m_from_ok|]. intros start. apply agrees_r_at. intros hw.
  apply agrees_r_at. intros proto.
  repeat (apply agrees_r_try; [apply m_from_ok|]; intros _). apply agrees_r_ret.
Qed.

(* the three readers that exist as read / read_limited and are called by the
   extension readers: in continuation-passing form for every continuation *)
Lemma agrees_ip_auth_read_k lim k k' : (forall nh, agrees_r (k nh) (k' nh)) ->
  agrees_r (y_with_start lim L_AUTH
     (ytry_map (m_auth lim) 12 (fun start => y_at start 0 (fun next_header => y_at start 1 (fun payload_len =>
        if payload_len <? 1 then YFail CAuthZeroLen
        else ytry_map (m_auth lim) ((payload_len - 1) * 4) (fun _ => k next_header))))))
    (ip_auth_read lim k').
Proof.
  intros Hk. unfold ip_auth_read. apply agrees_r_with_start.
  apply agrees_r_try; [apply m_auth_ok|]. intros start. apply agrees_r_at. intros nh.
  apply agrees_r_at. intros pl. destruct (pl <? 1); [apply agrees_r_fail|].
  apply agrees_r_try; [apply m_auth_ok|]. intros _. apply Hk.
Qed.

Lemma agrees_ip_auth_read lim : agrees_r (y_ip_auth_read lim) (ip_auth_read lim (fun nh => PRet [nh])).
Proof. apply agrees_ip_auth_read_k. intros nh. apply agrees_r_ret. Qed.

Lemma agrees_ipv6_raw_ext_read lim :
  agrees_r (y_ipv6_raw_ext_read lim) (ipv6_raw_ext_read lim (fun nh => PRet [nh])).
Proof.
  unfold y_ipv6_raw_ext_read, ipv6_raw_ext_read. apply agrees_r_with_start.
  apply agrees_r_try; [apply m_from_ok|]. intros d. apply agrees_r_at. intros nh.
  apply agrees_r_at. intros hl. apply agrees_r_try; [apply m_from_ok|]. intros _. apply agrees_r_ret.
Qed.

Lemma agrees_ipv6_frag_read lim :
  agrees_r (y_ipv6_frag_read lim) (ipv6_frag_read lim (fun nh => PRet [nh])).
Proof.
  unfold y_ipv6_frag_read, ipv6_frag_read. apply agrees_r_with_start.
  apply agrees_r_try; [apply m_from_ok|]. intros b. apply agrees_r_at. intros nh. apply agrees_r_ret.
Qed.

(* rcall of the continuation-passing Model.v readers: the continuation moves in *)
Lemma rcall_at bs i g k : rcall (at_ bs i g) k = at_ bs i (fun v => rcall (g v) k).
Proof. unfold at_. destruct (rd bs i); reflexivity. Qed.

Lemma rcall_with_start lim layer p k :
  rcall (with_start lim layer p) k = with_start lim layer (rcall p k).
Proof. unfold with_start. destruct lim; reflexivity. Qed.

Lemma req_at bs i g g' : (forall v, req (g v) (g' v)) -> req (at_ bs i g) (at_ bs i g').
Proof. intros H. unfold at_. destruct (rd bs i); [apply H | constructor]. Qed.

Lemma req_with_start lim layer p p' : req p p' -> req (with_start lim layer p) (with_start lim layer p').
Proof. intros H. unfold with_start. destruct lim; [constructor|]; exact H. Qed.

Lemma rcall_ip_auth lim k :
  req (rcall (ip_auth_read lim (fun nh => PRet [nh])) (fun v => r_hd v k)) (ip_auth_read lim k).
Proof.
  unfold ip_auth_read. rewrite rcall_with_start. apply req_with_start. cbn [rcall].
  apply req_read. intros start. rewrite rcall_at. apply req_at. intros nh.
  rewrite rcall_at. apply req_at. intros pl.
  destruct (pl <? 1); cbn [rcall]; [constructor|]. apply req_read. intros _. cbn [rcall r_hd]. apply req_refl.
Qed.

Lemma rcall_raw_ext lim k :
  req (rcall (ipv6_raw_ext_read lim (fun nh => PRet [nh])) (fun v => r_hd v k)) (ipv6_raw_ext_read lim k).
Proof.
  unfold ipv6_raw_ext_read. rewrite rcall_with_start. apply req_with_start. cbn [rcall].
  apply req_read. intros d. rewrite rcall_at. apply req_at. intros nh.
  rewrite rcall_at. apply req_at. intros hl. cbn [rcall]. apply req_read. intros _.
  cbn [rcall r_hd]. apply req_refl.
Qed.

Lemma rcall_frag lim k :
  req (rcall (ipv6_frag_read lim (fun nh => PRet [nh])) (fun v => r_hd v k)) (ipv6_frag_read lim k).
Proof.
  unfold ipv6_frag_read. rewrite rcall_with_start. apply req_with_start. cbn [rcall].
  apply req_read. intros b. rewrite rcall_at. apply req_at. intros nh. cbn [rcall r_hd]. apply req_refl.
Qed.

(* callee(reader).map_err(f)?; k  for a callee whose Model.v program P is in
   continuation-passing form and hands on the head of its value *)
Lemma agrees_call_hd y (P : (N -> rprog) -> rprog) f k k' :
  agrees_r y (P (fun nh => PRet [nh])) ->
  (forall kr, req (rcall (P (fun nh => PRet [nh])) (fun v => r_hd v kr)) (P kr)) ->
  m_ok f -> (forall nh, agrees_r (k nh) (k' nh)) ->
  agrees_r (ycall y (yq_call f (fun v => y_hd v k))) (P k').
Proof.
  intros Hy Hr Hf Hk.
  exact (agrees_r_call _ _ f _ (fun v => r_hd v k') _ Hy Hf (agrees_r_hd k k' Hk) (Hr k')).
Qed.

Lemma agrees_call_auth lim f k k' : m_ok f -> (forall nh, agrees_r (k nh) (k' nh)) ->
  agrees_r (ycall (y_ip_auth_read lim) (yq_call f (fun v => y_hd v k))) (ip_auth_read lim k').
Proof. exact (agrees_call_hd _ (ip_auth_read lim) f k k' (agrees_ip_auth_read lim) (rcall_ip_auth lim)). Qed.

Lemma agrees_call_raw_ext lim f k k' : m_ok f -> (forall nh, agrees_r (k nh) (k' nh)) ->
  agrees_r (ycall (y_ipv6_raw_ext_read lim) (yq_call f (fun v => y_hd v k))) (ipv6_raw_ext_read lim k').
Proof.
  exact (agrees_call_hd _ (ipv6_raw_ext_read lim) f k k' (agrees_ipv6_raw_ext_read lim) (rcall_raw_ext lim)).
Qed.

Lemma agrees_call_frag lim f k k' : m_ok f -> (forall nh, agrees_r (k nh) (k' nh)) ->
  agrees_r (ycall (y_ipv6_frag_read lim) (yq_call f (fun v => y_hd v k))) (ipv6_frag_read lim k').
Proof.
  exact (agrees_call_hd _ (ipv6_frag_read lim) f k k' (agrees_ipv6_frag_read lim) (rcall_frag lim)).
Qed.

Lemma agrees_x4_read lim start : agrees_r (y_x4_read lim start) (x4_read lim start).
Proof.
  unfold y_x4_read, x4_read. destruct (AUTH =? start); [|apply agrees_r_ret].
  apply agrees_call_auth; [apply m_from_ok | intros; apply agrees_r_ret].
Qed.

Lemma agrees_x6_read_loop fuel lim : forall s next,
  agrees_r (y_x6_read_loop fuel lim s next) (x6_read_loop fuel lim s next).
Proof.
  induction fuel as [|f IH]; intros s next; cbn [y_x6_read_loop x6_read_loop]; [apply agrees_r_fuel|].
  cbv zeta.
  destruct (next =? IPV6_HOP_BY_HOP); [apply agrees_r_fail|].
  destruct (next =? IPV6_DEST_OPTIONS).
  { destruct (s_route s).
    - destruct (s_final s); [apply agrees_r_ret|].
      apply agrees_call_raw_ext; [apply m_x6_ok | intros; apply IH].
    - destruct (s_dest s); [apply agrees_r_ret|].
      apply agrees_call_raw_ext; [apply m_x6_ok | intros; apply IH]. }
  destruct (next =? IPV6_ROUTE).
  { destruct (s_route s); [apply agrees_r_ret|].
    apply agrees_call_raw_ext; [apply m_x6_ok | intros; apply IH]. }
  destruct (next =? IPV6_FRAG).
  { destruct (s_frag s); [apply agrees_r_ret|].
    apply agrees_call_frag; [apply m_x6_ok | intros; apply IH]. }
  destruct (next =? AUTH).
  { destruct (s_auth s); [apply agrees_r_ret|].
    apply agrees_call_auth; [apply m_content_ok | intros; apply IH]. }
  apply agrees_r_ret.
Qed.

Lemma agrees_x6_read lim start : agrees_r (y_x6_read lim start) (x6_read lim start).
Proof.
  unfold y_x6_read, x6_read. destruct (IPV6_HOP_BY_HOP =? start); [|apply agrees_x6_read_loop].
  apply agrees_call_raw_ext; [apply m_x6_ok | intros; apply agrees_x6_read_loop].
Qed.

(* callee(reader).map(..).map_err(f)  returned as it is *)
Lemma agrees_call_tail a pa f : agrees_r a pa -> m_ok f -> agrees_r (ycall a (yq_call f YRet)) pa.
Proof.
  intros Ha Hf. apply (agrees_r_call a pa f YRet PRet pa Ha Hf); [intros; apply agrees_r_ret|].
  apply rcall_ret.
Qed.

Lemma agrees_ip_headers_read : agrees_r y_ip_headers_read ip_headers_read.
Proof.
  apply agrees_r_try; [apply m_io_ok|]. intros buf. apply agrees_r_at. intros value.
  destruct (value / 16 =? 4).
  { cbv zeta. destruct (value mod 16 <? 5); [apply agrees_r_fail|].
    apply agrees_r_try; [apply m_io_ok|]. intros rest.
    apply agrees_r_at. intros t0. apply agrees_r_at. intros t1. apply agrees_r_at. intros protocol.
    destruct (t0 * 256 + t1 <? value mod 16 * 4); [apply agrees_r_lenerr|].
    apply agrees_r_limit. apply agrees_call_tail; [apply agrees_x4_read | apply m_content_ok]. }
  destruct (value / 16 =? 6); [|apply agrees_r_fail].
  apply agrees_call_ipv6_rwv; [apply m_io_ok|]. intros buffer.
  apply agrees_r_at. intros p0. apply agrees_r_at. intros p1. apply agrees_r_at. intros nh.
  apply agrees_r_limit. apply agrees_call_tail; [apply agrees_x6_read | apply m_content_ok].
Qed.

Lemma crate_readers_propagate :
  Forall2 agrees_r y_plain_readers plain_readers /\
  (forall lim,
     agrees_r (y_ip_auth_read lim) (ip_auth_read lim (fun nh => PRet [nh])) /\
     agrees_r (y_ipv6_raw_ext_read lim) (ipv6_raw_ext_read lim (fun nh => PRet [nh])) /\
     agrees_r (y_ipv6_frag_read lim) (ipv6_frag_read lim (fun nh => PRet [nh]))) /\
  (forall lim start,
     agrees_r (y_x6_read lim start) (x6_read lim start) /\
     agrees_r (y_x4_read lim start) (x4_read lim start)).
Proof.
  split; [|split].
  - unfold y_plain_readers, plain_readers.
    repeat (apply Forall2_cons; [
      first [ apply agrees_read_fixed | apply agrees_ipv4_header_read | apply agrees_ipv6_header_read
            | apply agrees_tcp_header_read | apply agrees_icmpv4_header_read
            | apply agrees_macsec_header_read | apply agrees_arp_packet_read
            | apply agrees_ip_headers_read | apply agrees_ip_auth_read
            | apply agrees_ipv6_raw_ext_read | apply agrees_ipv6_frag_read ] |]).
    apply Forall2_nil.
  - intros lim. split; [apply agrees_ip_auth_read|].
    split; [apply agrees_ipv6_raw_ext_read | apply agrees_ipv6_frag_read].
  - intros lim start. split; [apply agrees_x6_read | apply agrees_x4_read].
Qed.

(* what it buys: the read-fault theorem and totality, stated of the EXPLICIT
   programs and their interpreter run_y (which hands every Result to the program) *)
Lemma Forall2_in_l {A B} (R : A -> B -> Prop) l l' : Forall2 R l l' ->
  forall a, In a l -> exists b, In b l' /\ R a b.
Proof.
  induction 1 as [|a b l l' Hab Hl IH]; intros x Hx; [contradiction|].
  destruct Hx as [<-|Hx].
  - exists b. split; [left; reflexivity | exact Hab].
  - destruct (IH x Hx) as (b' & Hb & Hr). exists b'. split; [right; exact Hb | exact Hr].
Qed.

Lemma crate_readers_explicit_fault :
  (forall y d c e j, In y y_plain_readers -> 1 <= c ->
     let r := run_y y (start_st d c e None) in
     let rj := run_y y (start_st (take j d) c e None) in
     good (fst r) /\
     (j < src_pulled (rs_src (snd r)) -> fst rj = QIo (io_kind e) /\ src_pulled (rs_src (snd rj)) = j) /\
     (src_pulled (rs_src (snd r)) <= j -> fst rj = fst r /\ src_pulled (rs_src (snd rj)) = src_pulled (rs_src (snd r)))) /\
  (forall (lim : bool) start lr d c e j, 1 <= c -> lr_read lr <= lr_max lr ->
     let l := if lim then Some lr else None in
     (let r := run_y (y_x6_read lim start) (start_st d c e l) in
      let rj := run_y (y_x6_read lim start) (start_st (take j d) c e l) in
      good (fst r) /\
      (j < src_pulled (rs_src (snd r)) -> fst rj = QIo (io_kind e) /\ src_pulled (rs_src (snd rj)) = j) /\
      (src_pulled (rs_src (snd r)) <= j -> fst rj = fst r /\ src_pulled (rs_src (snd rj)) = src_pulled (rs_src (snd r)))) /\
     (let r := run_y (y_x4_read lim start) (start_st d c e l) in
      let rj := run_y (y_x4_read lim start) (start_st (take j d) c e l) in
      good (fst r) /\
      (j < src_pulled (rs_src (snd r)) -> fst rj = QIo (io_kind e) /\ src_pulled (rs_src (snd rj)) = j) /\
      (src_pulled (rs_src (snd r)) <= j -> fst rj = fst r /\ src_pulled (rs_src (snd rj)) = src_pulled (rs_src (snd r))))).
Proof.
  destruct crate_readers_propagate as (HP & _ & HX).
  destruct crate_readers_fault as (F1 & F2).
  split.
  - intros y d c e j Hin Hc. cbv zeta.
    destruct (Forall2_in_l _ _ _ HP y Hin) as (p & Hp & Ha).
    rewrite !(agrees_r_run y p Ha). exact (F1 p d c e j Hp Hc).
  - intros lim start lr d c e j Hc Hi. cbv zeta.
    destruct (HX lim start) as (A6 & A4).
    rewrite !(agrees_r_run _ _ A6), !(agrees_r_run _ _ A4).
    exact (F2 lim start lr d c e j Hc Hi).
Qed.

(* ================================================================ F *)
(* a caller that swallows the callee's error: Ipv4Extensions::read written as
       match IpAuthHeader::read(reader) {
         Ok(header) => Ok((Ipv4Extensions{auth: Some(header)}, header.next_header)),
         Err(_)     => Ok((Default::default(), start_ip_number)) }
   Every read_exact inside the callee propagates; the defect is in the caller. *)
Definition swallowing_x4_read (start_ip_number : N) : yprog :=
  if AUTH =? start_ip_number then
    ycall (y_ip_auth_read false)
      (fun r => match r with
                | inl v => y_hd v (fun next => YRet [next; 1])
                | inr _ => YRet [start_ip_number; 0]
                end)
  else YRet [start_ip_number; 0].

(* an authentication header of 16 bytes (payload_len 2: 4 ICV bytes) *)
Definition ex_auth : bytes := [6; 2; 0; 0; 0; 0; 0; 1; 0; 0; 0; 2; 9; 9; 9; 9].

Lemma swallow_call_refuted :
  ~ propagating_r (swallowing_x4_read AUTH) /\
  propagating_r (y_x4_read false AUTH) /\
  (let r := run_y (swallowing_x4_read AUTH) (start_st ex_auth 3 false None) in
   fst r = QOk [6; 1] /\ src_pulled (rs_src (snd r)) = 16) /\
  (let r := run_y (swallowing_x4_read AUTH) (start_st (take 14 ex_auth) 3 false None) in
   fst r = QOk [AUTH; 0] /\ src_pulled (rs_src (snd r)) = 14) /\
  (let r := run_y (y_x4_read false AUTH) (start_st (take 14 ex_auth) 3 false None) in
   fst r = QIo KEof /\ src_pulled (rs_src (snd r)) = 14).
Proof.
  split; [|split; [apply agrees_x4_read|]].
  - intros H. unfold swallowing_x4_read in H. change (AUTH =? AUTH) with true in H. cbv iota in H.
    unfold y_ip_auth_read, y_with_start, ytry_map in H. cbn [ycall] in H.
    inversion H as [ | | | | |n k Hio Hlen Hk| | ]; subst.
    specialize (Hio KEof). cbn [rd_result yraise m_auth m_io ycall] in Hio. discriminate Hio.
  - repeat split; vm_compute; reflexivity.
Qed.
