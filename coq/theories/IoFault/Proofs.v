(* IoFault/Proofs.v -- lemmas for property C16 (Props/C16.v has the statements
   that matter), in this order: write_all over the
   instrumented sink = closed form, and any write program against a sink failing
   at byte k; the IPv6 extension walk is total (no unwrap panic, fuel suffices);
   SliceCoreWrite; the builder's final_size is the true length, final_write_to_slice;
   write_to_slice of a header; read_exact over the instrumented source = closed
   form; the LimitedReader's Len error and its invariants for every read program;
   the read programs never reach an impossible index / run out of fuel; last,
   the forms in which Props/C16.v and IoFault/WriterBytes.v take these up (the
   two-part writers' bytes, the builder against a faulting writer, the crate's
   readers on a plain source). *)
From EP Require Import Base.Bytes Base.Lists IoFault.Spec IoFault.Model.
Local Open Scope N_scope.

Lemma len_0_nil {A} (l : list A) : len l = 0 -> l = [].
Proof. exact (Lists.len_0_nil l). Qed.

Lemma len_length {A} (l : list A) : N.to_nat (len l) = length l.
Proof. unfold len. lia. Qed.

Lemma fsink_eta s : mk_fsink (fs_budget s) (fs_chunk s) (fs_zero s) (fs_got s) = s.
Proof. destruct s; reflexivity. Qed.

Lemma spec_write_all_fits s b : len b <= fs_budget s ->
  spec_write_all s b = (None, mk_fsink (fs_budget s - len b) (fs_chunk s) (fs_zero s) (fs_got s ++ b)).
Proof. intros H. unfold spec_write_all. apply N.leb_le in H. now rewrite H. Qed.

Lemma spec_write_all_over s b : fs_budget s < len b ->
  spec_write_all s b =
    (Some (fs_kind s), mk_fsink 0 (fs_chunk s) (fs_zero s) (fs_got s ++ take (fs_budget s) b)).
Proof. intros H. unfold spec_write_all. apply N.leb_gt in H. now rewrite H. Qed.

Lemma spec_write_all_nil s : spec_write_all s [] = (None, s).
Proof.
  rewrite spec_write_all_fits by (rewrite len_nil; lia).
  now rewrite len_nil, N.sub_0_r, app_nil_r, fsink_eta.
Qed.

Lemma spec_write_all_dead s b : fs_budget s = 0 -> 0 < len b ->
  spec_write_all s b = (Some (fs_kind s), s).
Proof.
  intros H0 Hb. rewrite spec_write_all_over by lia. rewrite H0, take_0, app_nil_r.
  rewrite <- H0. now rewrite fsink_eta.
Qed.

Lemma spec_write_all_app s a b :
  spec_write_all s (a ++ b) =
    match spec_write_all s a with (None, s') => spec_write_all s' b | r => r end.
Proof.
  destruct (N.le_gt_cases (len a) (fs_budget s)) as [Ha|Ha].
  - rewrite (spec_write_all_fits s a) by exact Ha.
    destruct (N.le_gt_cases (len b) (fs_budget s - len a)) as [Hb|Hb].
    + rewrite !spec_write_all_fits by (rewrite ?len_app; cbn [fs_budget]; lia).
      cbn [fs_budget fs_chunk fs_zero fs_got]. rewrite len_app, app_assoc. do 2 f_equal. lia.
    + rewrite !spec_write_all_over by (rewrite ?len_app; cbn [fs_budget]; lia).
      cbn [fs_budget fs_chunk fs_zero fs_got]. now rewrite take_app_r, app_assoc by exact Ha.
  - rewrite !spec_write_all_over by (rewrite ?len_app; lia). now rewrite take_app_l by lia.
Qed.

Lemma std_write_all_spec fuel : forall s buf,
  1 <= fs_chunk s -> (length buf < fuel)%nat ->
  std_write_all fuel s buf =
    (match fst (spec_write_all s buf) with None => ROk | Some k => RIo k end,
     snd (spec_write_all s buf)).
Proof.
  induction fuel as [|f IH]; intros s buf Hc Hf; [lia|].
  destruct buf as [|b0 r]; [now rewrite spec_write_all_nil|].
  cbn [std_write_all]. set (buf := b0 :: r) in *.
  assert (Hlen : 1 <= len buf) by apply len_nonempty.
  unfold fs_write. destruct (fs_budget s =? 0) eqn:Eb.
  - apply N.eqb_eq in Eb. rewrite spec_write_all_dead by lia.
    unfold fs_kind. destruct (fs_zero s); reflexivity.
  - apply N.eqb_neq in Eb.
    set (n := N.min (N.min (fs_budget s) (fs_chunk s)) (len buf)).
    assert (Hn : 1 <= n <= len buf /\ n <= fs_budget s) by (unfold n; lia).
    destruct (N.eqb_spec n 0); [lia|]. destruct (N.ltb_spec (len buf) n); [lia|].
    rewrite IH; [| exact Hc | pose proof (len_drop n buf); unfold len in *; lia].
    replace (spec_write_all s buf) with (spec_write_all s (take n buf ++ drop n buf)) by now rewrite take_drop.
    rewrite spec_write_all_app, (spec_write_all_fits s (take n buf)) by (rewrite len_take; lia).
    now rewrite len_take, N.min_l by lia.
Qed.

Lemma write_all_closed_form s buf : 1 <= fs_chunk s ->
  io_write_all s buf =
    (match fst (spec_write_all s buf) with None => ROk | Some k => RIo k end,
     snd (spec_write_all s buf)).
Proof. intros H. unfold io_write_all. apply std_write_all_spec; [exact H | lia]. Qed.

Lemma spec_write_all_chunk s b : fs_chunk (snd (spec_write_all s b)) = fs_chunk s.
Proof. unfold spec_write_all. destruct (len b <=? fs_budget s); reflexivity. Qed.

Lemma run_io_spec p : forall s, 1 <= fs_chunk s ->
  run_w io_write_all p s =
    (match fst (spec_write_all s (wprog_bytes p)) with
     | None => ret_of (wprog_verdict p) | Some k => RIo k end,
     snd (spec_write_all s (wprog_bytes p))).
Proof.
  induction p as [v|b k IH]; intros s Hc; cbn [run_w wprog_bytes wprog_verdict].
  - now rewrite spec_write_all_nil.
  - rewrite write_all_closed_form, spec_write_all_app by exact Hc.
    pose proof (spec_write_all_chunk s b) as Hc'.
    destruct (spec_write_all s b) as [[e|] s']; cbn [fst snd] in *; [reflexivity|].
    apply IH. now rewrite Hc'.
Qed.

Definition fresh_sink (k chunk : N) (zero : bool) : fsink := mk_fsink k chunk zero [].

Definition verdict_ok (v : verdict) : Prop :=
  match v with VOk | VContent _ => True | _ => False end.

Lemma write_fault_any p k chunk zero : 1 <= chunk ->
  let enc := wprog_bytes p in
  let r := run_w io_write_all p (fresh_sink k chunk zero) in
  (k < len enc ->
     fst r = RIo (if zero then KWriteZero else KOther) /\ fs_got (snd r) = take k enc
     /\ is_prefix (fs_got (snd r)) enc) /\
  (len enc <= k -> fst r = ret_of (wprog_verdict p) /\ fs_got (snd r) = enc) /\
  (fst (spec_fault_write enc k) = true <-> len enc <= k) /\
  fs_got (snd r) = snd (spec_fault_write enc k).
Proof.
  intros Hc enc r. unfold r. rewrite run_io_spec by exact Hc. fold enc.
  split; [intros H | split; [intros H | split; [apply N.leb_le|]]].
  - rewrite spec_write_all_over by exact H. repeat split.
    exists (drop k enc). symmetry. apply take_drop.
  - rewrite spec_write_all_fits by exact H. split; reflexivity.
  - destruct (N.le_gt_cases (len enc) k) as [H|H].
    + rewrite spec_write_all_fits by exact H. symmetry. apply take_all. exact H.
    + rewrite spec_write_all_over by exact H. reflexivity.
Qed.

(* `a?; b`: b runs iff a returned Ok(()) *)
Lemma wseq_spec a b :
  wprog_bytes (wseq a b)
    = wprog_bytes a ++ match wprog_verdict a with VOk => wprog_bytes b | _ => [] end /\
  wprog_verdict (wseq a b) = match wprog_verdict a with VOk => wprog_verdict b | v => v end.
Proof.
  induction a as [v|p k [IH1 IH2]]; cbn [wseq wprog_bytes wprog_verdict].
  - destruct v; auto.
  - now rewrite IH1, IH2, app_assoc.
Qed.

Lemma wseq_bytes_ok a b : wprog_verdict a = VOk ->
  wprog_bytes (wseq a b) = wprog_bytes a ++ wprog_bytes b /\ wprog_verdict (wseq a b) = wprog_verdict b.
Proof. intros H. pose proof (wseq_spec a b) as S. now rewrite H in S. Qed.

Lemma wseq_bytes_err a b : wprog_verdict a <> VOk ->
  wprog_bytes (wseq a b) = wprog_bytes a /\ wprog_verdict (wseq a b) = wprog_verdict a.
Proof.
  intros H. pose proof (wseq_spec a b) as S.
  destruct (wprog_verdict a); try congruence; now rewrite app_nil_r in S.
Qed.

Lemma wseq_len_le a b : len (wprog_bytes (wseq a b)) <= len (wprog_bytes a) + len (wprog_bytes b).
Proof.
  rewrite (proj1 (wseq_spec a b)), len_app. destruct (wprog_verdict a); rewrite ?len_nil; lia.
Qed.

Lemma wseq_verdict_ok a b : verdict_ok (wprog_verdict a) -> verdict_ok (wprog_verdict b) ->
  verdict_ok (wprog_verdict (wseq a b)).
Proof. intros Ha Hb. rewrite (proj2 (wseq_spec a b)). destruct (wprog_verdict a); assumption. Qed.

Lemma wseq_ok_inv a b : wprog_verdict (wseq a b) = VOk -> wprog_verdict a = VOk /\ wprog_verdict b = VOk.
Proof. rewrite (proj2 (wseq_spec a b)). destruct (wprog_verdict a); intros H; try discriminate H; auto. Qed.

(* the six needs_write flags, their setters and the headers they stand for, by index *)
Inductive slot := SHop | SDest | SRoute | SFrag | SAuth | SFinal.

Definition flag (nw : needs) (sl : slot) : bool :=
  match sl with
  | SHop => n_hop nw | SDest => n_dest nw | SRoute => n_route nw
  | SFrag => n_frag nw | SAuth => n_auth nw | SFinal => n_final nw
  end.
Definition clear (nw : needs) (sl : slot) : needs :=
  match sl with
  | SHop => set_hop nw | SDest => set_dest nw | SRoute => set_route nw
  | SFrag => set_frag nw | SAuth => set_auth nw | SFinal => set_final nw
  end.
Definition hdr (x : exts6) (sl : slot) : option ext :=
  match sl with
  | SHop => x6_hop x | SDest => x6_dest x | SFrag => x6_frag x | SAuth => x6_auth x
  | SRoute => match x6_routing x with Some (r, _) => Some r | None => None end
  | SFinal => match x6_routing x with Some (_, f) => f | None => None end
  end.

(* clearing a flag raises no other *)
Lemma flag_clear nw a b : flag (clear nw a) b = true -> flag nw b = true /\ a <> b.
Proof. destruct a, b; cbn; intros H; (split; [exact H | discriminate]) || discriminate H. Qed.

(* a flag that is set has its header (the hop flag is never looked at by the loop) *)
Definition consistent (x : exts6) (nw : needs) : Prop :=
  forall sl, sl <> SHop -> flag nw sl = true -> hdr x sl <> None.

Lemma consistent_needs x : consistent x (x6_needs x).
Proof.
  intros sl _. unfold x6_needs.
  destruct sl; cbn [flag hdr n_hop n_dest n_route n_frag n_auth n_final];
    destruct (x6_routing x) as [[r [h|]]|]; try discriminate;
    match goal with |- is_some ?o = true -> _ => destruct o; discriminate end.
Qed.

Lemma consistent_clear x nw sl : consistent x nw -> consistent x (clear nw sl).
Proof. intros H b Hb Hf. apply (H b Hb). apply (flag_clear nw sl b Hf). Qed.

Definition b2nat (b : bool) : nat := if b then 1%nat else 0%nat.
Definition pending (nw : needs) : nat :=
  (b2nat (n_dest nw) + b2nat (n_route nw) + b2nat (n_frag nw) + b2nat (n_auth nw) + b2nat (n_final nw))%nat.

Lemma pending_le5 nw : (pending nw <= 5)%nat.
Proof. unfold pending. destruct (n_dest nw), (n_route nw), (n_frag nw), (n_auth nw), (n_final nw); cbn; lia. Qed.

Lemma pending_clear nw sl : sl <> SHop -> flag nw sl = true -> (pending (clear nw sl) < pending nw)%nat.
Proof.
  intros Hs H. unfold pending. destruct sl; [congruence|..]; cbn [flag] in H;
    cbn [clear n_dest n_route n_frag n_auth n_final set_dest set_route set_frag set_auth set_final];
    rewrite H; cbn [b2nat]; lia.
Qed.

Lemma x6_final_ok nw : verdict_ok (x6_final nw).
Proof. unfold x6_final. repeat match goal with |- context [if ?b then _ else _] => destruct b end; exact I. Qed.

(* the shape of the loop: five ways to end, one to go on *)
Lemma x6_loop_walk (P : nat -> needs -> wprog -> Prop) x :
  (forall nw, P 0%nat nw (WRet VFuel)) ->
  (forall f nw, P (S f) nw (WRet (VContent CHopNotAtStart))) ->
  (forall f nw, P (S f) nw (WRet (x6_final nw))) ->
  (forall f nw sl, sl <> SHop -> flag nw sl = true -> hdr x sl = None -> P (S f) nw (WRet VPanic)) ->
  (forall f nw sl h k, sl <> SHop -> flag nw sl = true -> hdr x sl = Some h ->
     P f (clear nw sl) k -> P (S f) nw (WWrite (e_enc h) k)) ->
  forall fuel nw next rw, P fuel nw (x6_loop fuel x nw next rw).
Proof.
  intros Hfuel Hhop Hfin Hpanic Hwrite. induction fuel as [|f IH]; intros nw next rw; [apply Hfuel|].
  assert (Harm : forall sl rw', sl <> SHop ->
    P (S f) nw (if flag nw sl
                then match hdr x sl with
                     | Some h => WWrite (e_enc h) (x6_loop f x (clear nw sl) (e_nh h) rw')
                     | None => WRet VPanic
                     end
                else WRet (x6_final nw))).
  { intros sl rw' Hs. destruct (flag nw sl) eqn:E; [|apply Hfin].
    destruct (hdr x sl) as [h|] eqn:Eh; [apply (Hwrite f nw sl h); auto | apply (Hpanic f nw sl); auto]. }
  cbn [x6_loop].
  destruct (next =? IPV6_HOP_BY_HOP); [destruct (n_hop nw); [apply Hhop | apply Hfin]|].
  destruct (next =? IPV6_DEST_OPTIONS).
  { destruct rw; [|apply (Harm SDest false); discriminate].
    generalize (Harm SFinal true). cbn [flag hdr clear].
    destruct (x6_routing x) as [[r [h|]]|]; intros H; apply H; discriminate. }
  destruct (next =? IPV6_ROUTE).
  { generalize (Harm SRoute true). cbn [flag hdr clear].
    destruct (x6_routing x) as [[r fo]|]; intros H; apply H; discriminate. }
  destruct (next =? IPV6_FRAG); [apply (Harm SFrag rw); discriminate|].
  destruct (next =? AUTH); [apply (Harm SAuth rw); discriminate|].
  apply Hfin.
Qed.

Lemma x6_loop_verdict fuel : forall x nw next rw,
  consistent x nw -> (pending nw < fuel)%nat ->
  verdict_ok (wprog_verdict (x6_loop fuel x nw next rw)).
Proof.
  intros x. revert fuel.
  apply (x6_loop_walk (fun f nw p => consistent x nw -> (pending nw < f)%nat -> verdict_ok (wprog_verdict p))).
  - lia.
  - intros; exact I.
  - intros; apply x6_final_ok.
  - intros f nw sl Hs Hf Hh Hc _. exact (Hc sl Hs Hf Hh).
  - intros f nw sl h k Hs Hf Hh IH Hc Hp.
    apply IH; [apply consistent_clear, Hc | pose proof (pending_clear nw sl Hs Hf); lia].
Qed.

Lemma x6_write_internal_verdict x first : verdict_ok (wprog_verdict (x6_write_internal x first)).
Proof.
  unfold x6_write_internal. assert (Hc := consistent_needs x).
  assert (Hp : forall nw, (pending nw < X6_FUEL)%nat) by (intros nw; pose proof (pending_le5 nw); unfold X6_FUEL; lia).
  destruct (IPV6_HOP_BY_HOP =? first); [|apply x6_loop_verdict; auto].
  destruct (x6_hop x) as [h|]; [|apply x6_loop_verdict; auto].
  apply x6_loop_verdict; [apply (consistent_clear x _ SHop Hc) | apply Hp].
Qed.

Lemma x4_write_internal_verdict x start : verdict_ok (wprog_verdict (x4_write_internal x start)).
Proof.
  unfold x4_write_internal. destruct (x4_auth x); [|exact I].
  destruct (AUTH =? start); exact I.
Qed.

Lemma sw_write_fit s b : sw_pos s + len b <= len (sw_buf s) ->
  sw_write_all s b =
    (ROk, mk_slicew (take (sw_pos s) (sw_buf s) ++ b ++ drop (sw_pos s + len b) (sw_buf s))
                    (sw_pos s + len b)).
Proof.
  intros H. unfold sw_write_all.
  destruct (N.ltb_spec (len (sw_buf s)) (sw_pos s)); [lia|].
  destruct (N.ltb_spec (len (sw_buf s) - sw_pos s) (len b)); [lia | reflexivity].
Qed.

(* all-or-nothing per part: a part that does not fit leaves the writer untouched and
   reports required_len = pos + part length, len = buffer length *)
Lemma sw_write_short s b : len (sw_buf s) < sw_pos s + len b ->
  sw_write_all s b = (RIo (mk_space (sw_pos s + len b) (len (sw_buf s))), s).
Proof.
  intros H. unfold sw_write_all.
  destruct (N.ltb_spec (len (sw_buf s)) (sw_pos s)); [reflexivity|].
  destruct (N.ltb_spec (len (sw_buf s) - sw_pos s) (len b)); [reflexivity | lia].
Qed.

Lemma take_len_app {A} (a c : list A) : take (len a) (a ++ c) = a.
Proof. rewrite take_app_l by lia. apply take_all. lia. Qed.

Lemma run_slice_fit p : forall w, sw_pos w + len (wprog_bytes p) <= len (sw_buf w) ->
  run_w sw_write_all p w =
    (ret_of (wprog_verdict p),
     mk_slicew (take (sw_pos w) (sw_buf w) ++ wprog_bytes p
                ++ drop (sw_pos w + len (wprog_bytes p)) (sw_buf w))
               (sw_pos w + len (wprog_bytes p))).
Proof.
  induction p as [v|b k IH]; intros w H; cbn [run_w wprog_bytes wprog_verdict] in *.
  - rewrite len_nil, N.add_0_r. cbn [app]. rewrite take_drop. destruct w; reflexivity.
  - rewrite len_app in H. rewrite sw_write_fit by lia.
    set (a := take (sw_pos w) (sw_buf w)).
    assert (Ha : len a = sw_pos w) by (unfold a; rewrite len_take; lia).
    rewrite IH; cbn [sw_buf sw_pos].
    2:{ rewrite !len_app, len_drop. fold a. lia. }
    f_equal. rewrite len_app. f_equal; [|lia].
    set (d := drop (sw_pos w + len b) (sw_buf w)).
    assert (E1 : take (sw_pos w + len b) (a ++ b ++ d) = a ++ b).
    { replace (sw_pos w + len b) with (len (a ++ b)) by (rewrite len_app; lia).
      rewrite app_assoc. apply take_len_app. }
    assert (E2 : drop (sw_pos w + len b + len (wprog_bytes k)) (a ++ b ++ d)
                 = drop (sw_pos w + (len b + len (wprog_bytes k))) (sw_buf w)).
    { rewrite app_assoc. rewrite drop_app_r by (rewrite len_app; lia).
      unfold d. rewrite drop_drop. f_equal. rewrite len_app. lia. }
    rewrite E1, E2. now rewrite <- !app_assoc.
Qed.

Definition part_wf (p : part) : Prop := p_len p = len (p_enc p).
Definition ext_wf (e : ext) : Prop := e_len e = len (e_enc e).
Definition opt_wf {A} (P : A -> Prop) (o : option A) : Prop :=
  match o with Some a => P a | None => True end.
Definition exts4_wf (x : exts4) : Prop := opt_wf ext_wf (x4_auth x).
Definition exts6_wf (x : exts6) : Prop :=
  opt_wf ext_wf (x6_hop x) /\ opt_wf ext_wf (x6_dest x) /\
  (match x6_routing x with Some (r, f) => ext_wf r /\ opt_wf ext_wf f | None => True end) /\
  opt_wf ext_wf (x6_frag x) /\ opt_wf ext_wf (x6_auth x).
Definition bcfg_wf (c : bcfg) : Prop :=
  opt_wf part_wf (b_link c) /\ Forall part_wf (b_vlan c) /\
  (match b_net c with
   | BIpv4 h _ x => part_wf h /\ exts4_wf x
   | BIpv6 h _ x => part_wf h /\ exts6_wf x
   | BArp p => part_wf p
   end) /\ opt_wf part_wf (b_transport c).

Definition sized (p : wprog) (n : N) : Prop :=
  len (wprog_bytes p) <= n /\ (wprog_verdict p = VOk -> len (wprog_bytes p) = n).

Lemma sized_wseq a b n m : sized a n -> sized b m -> sized (wseq a b) (n + m).
Proof.
  intros [Ha1 Ha2] [Hb1 Hb2]. unfold sized. destruct (wseq_spec a b) as [-> ->]. rewrite len_app.
  destruct (wprog_verdict a).
  1: { specialize (Ha2 eq_refl). split; [lia|]. intros H. specialize (Hb2 H). lia. }
  all: rewrite len_nil; split; [lia | discriminate].
Qed.

Lemma sized_eq p n m : sized p n -> n = m -> sized p m.
Proof. now intros H <-. Qed.

Lemma sized_ok : sized (WRet VOk) 0.
Proof. split; [apply N.le_refl | reflexivity]. Qed.

Lemma sized_not_ok v n : v <> VOk -> sized (WRet v) n.
Proof. intros H. unfold sized. cbn -[len]. rewrite len_nil. split; [lia|congruence]. Qed.

Lemma sized_write b k n m : sized k n -> len b + n = m -> sized (WWrite b k) m.
Proof.
  intros [H1 H2] <-. unfold sized. cbn [wprog_bytes wprog_verdict]. rewrite len_app.
  split; [lia|]. intros Hv. specialize (H2 Hv). lia.
Qed.

Lemma sized_w1 b : sized (w1 b) (len b).
Proof. exact (sized_write b _ 0 _ sized_ok (N.add_0_r _)). Qed.

Lemma sized_cerr o : sized (cerr_w o) 0.
Proof. destruct o; [apply sized_not_ok; discriminate | exact sized_ok]. Qed.

Lemma sized_opt o : opt_wf part_wf o -> sized (opt_w o) (opt_plen o).
Proof.
  destruct o as [p|]; cbn [opt_wf opt_w opt_plen]; intros H; [|exact sized_ok].
  rewrite H. apply sized_w1.
Qed.

Lemma sized_parts ps : Forall part_wf ps -> sized (parts_w ps) (parts_len ps).
Proof.
  induction 1 as [|p r Hp Hr IH]; cbn [parts_w parts_len]; [exact sized_ok|].
  apply (sized_write _ _ _ _ IH). now rewrite Hp.
Qed.

Lemma sized_x4 x start : exts4_wf x -> sized (x4_write_internal x start) (x4_header_len x).
Proof.
  unfold exts4_wf, x4_write_internal, x4_header_len.
  destruct (x4_auth x) as [h|]; cbn [opt_wf]; intros H; [|exact sized_ok].
  destruct (AUTH =? start); [rewrite H; apply sized_w1 | apply sized_not_ok; discriminate].
Qed.

(* bytes still owed by the walk *)
Definition needs_len (x : exts6) (nw : needs) : N :=
  (if n_hop nw then opt_len (x6_hop x) else 0)
  + (if n_dest nw then opt_len (x6_dest x) else 0)
  + (if n_route nw then match x6_routing x with Some (r, _) => e_len r | None => 0 end else 0)
  + (if n_frag nw then opt_len (x6_frag x) else 0)
  + (if n_auth nw then opt_len (x6_auth x) else 0)
  + (if n_final nw then match x6_routing x with Some (_, f) => opt_len f | None => 0 end else 0).

Lemma x6_final_sized x nw : sized (WRet (x6_final nw)) (needs_len x nw).
Proof.
  unfold sized. cbn [wprog_bytes wprog_verdict]. rewrite len_nil. split; [lia|].
  unfold x6_final, needs_len.
  destruct (n_hop nw); [discriminate|]. destruct (n_dest nw); [discriminate|].
  destruct (n_route nw); [discriminate|]. destruct (n_frag nw); [discriminate|].
  destruct (n_auth nw); [discriminate|]. destruct (n_final nw); [discriminate|]. reflexivity.
Qed.

Lemma needs_len_clear x nw sl h : flag nw sl = true -> hdr x sl = Some h ->
  needs_len x nw = e_len h + needs_len x (clear nw sl).
Proof.
  intros Hf Hh. unfold needs_len.
  destruct sl; cbn [flag hdr] in Hf, Hh;
    cbn [clear n_hop n_dest n_route n_frag n_auth n_final set_hop set_dest set_route set_frag set_auth set_final];
    rewrite Hf; try (destruct (x6_routing x) as [[r fo]|]; [|discriminate Hh]);
    try (injection Hh as ->); rewrite ?Hh; cbn [opt_len]; lia.
Qed.

Lemma hdr_wf x sl h : exts6_wf x -> hdr x sl = Some h -> ext_wf h.
Proof.
  intros (Wh & Wd & Wr & Wf & Wa) H. destruct sl; cbn [hdr] in H;
    try (destruct (x6_routing x) as [[r fo]|]; [destruct Wr as [Wr Wo] | discriminate H]);
    try (injection H as ->); try rewrite H in *; assumption.
Qed.

Lemma x6_loop_sized fuel : forall x nw next rw, exts6_wf x ->
  sized (x6_loop fuel x nw next rw) (needs_len x nw).
Proof.
  intros x nw next rw Hwf. revert fuel nw next rw.
  apply (x6_loop_walk (fun _ nw p => sized p (needs_len x nw))).
  1, 2, 4: intros; apply sized_not_ok; discriminate.
  - intros; apply x6_final_sized.
  - intros f nw sl h k _ Hf Hh IH. apply (sized_write _ _ _ _ IH).
    rewrite <- (hdr_wf x sl h Hwf Hh). symmetry. apply needs_len_clear; assumption.
Qed.

Lemma needs_len_init x : needs_len x (x6_needs x) = x6_header_len x.
Proof.
  unfold needs_len, x6_needs, x6_header_len. cbn [n_hop n_dest n_route n_frag n_auth n_final].
  destruct (x6_hop x), (x6_dest x), (x6_routing x) as [[r [h|]]|], (x6_frag x), (x6_auth x);
    cbn [is_some opt_len]; lia.
Qed.

Lemma sized_x6 x first : exts6_wf x -> sized (x6_write_internal x first) (x6_header_len x).
Proof.
  intros Hwf. rewrite <- needs_len_init. unfold x6_write_internal.
  destruct (IPV6_HOP_BY_HOP =? first); [|apply x6_loop_sized; exact Hwf].
  destruct (x6_hop x) as [h|] eqn:Ex; [|apply x6_loop_sized; exact Hwf].
  apply (sized_write _ _ _ _ (x6_loop_sized _ x _ _ _ Hwf)).
  rewrite <- (hdr_wf x SHop h Hwf Ex). symmetry. apply (needs_len_clear x _ SHop); [|exact Ex].
  cbn [flag x6_needs n_hop]. now rewrite Ex.
Qed.

Lemma sized_final c payload : bcfg_wf c ->
  sized (final_write_with_net c payload) (final_size c (len payload)).
Proof.
  intros (Wl & Wv & Wn & Wt). unfold final_write_with_net, final_size.
  eapply sized_eq.
  - apply sized_wseq; [apply sized_opt; exact Wl|].
    apply sized_wseq; [apply sized_parts; exact Wv|].
    apply sized_wseq; [|apply sized_wseq; [apply sized_opt; exact Wt | apply sized_w1]].
    instantiate (1 := match b_net c with
                      | BIpv4 h _ x => p_len h + x4_header_len x
                      | BIpv6 h _ x => p_len h + x6_header_len x
                      | BArp p => p_len p end).
    destruct (b_net c) as [h pr x|h nh x|p].
    + destruct Wn as [Wh Wx]. eapply sized_eq.
      * apply sized_wseq; [apply sized_cerr|]. apply sized_wseq; [apply sized_w1|].
        apply sized_wseq; [apply sized_x4; exact Wx | apply sized_cerr].
      * rewrite Wh. lia.
    + destruct Wn as [Wh Wx]. eapply sized_eq.
      * apply sized_wseq; [apply sized_cerr|]. apply sized_wseq; [apply sized_w1|].
        apply sized_wseq; [apply sized_x6; exact Wx | apply sized_cerr].
      * rewrite Wh. lia.
    + rewrite Wn. apply sized_w1.
  - lia.
Qed.

Lemma cerr_w_ok o : verdict_ok (wprog_verdict (cerr_w o)).
Proof. destruct o; exact I. Qed.
Lemma opt_w_ok o : verdict_ok (wprog_verdict (opt_w o)).
Proof. destruct o; exact I. Qed.
Lemma parts_w_ok ps : verdict_ok (wprog_verdict (parts_w ps)).
Proof. induction ps; cbn [parts_w wprog_verdict]; [exact I | assumption]. Qed.

Lemma final_verdict_ok c payload : verdict_ok (wprog_verdict (final_write_with_net c payload)).
Proof.
  unfold final_write_with_net.
  apply wseq_verdict_ok; [apply opt_w_ok|].
  apply wseq_verdict_ok; [apply parts_w_ok|].
  apply wseq_verdict_ok; [|apply wseq_verdict_ok; [apply opt_w_ok|exact I]].
  destruct (b_net c).
  - apply wseq_verdict_ok; [apply cerr_w_ok|]. apply wseq_verdict_ok; [exact I|].
    apply wseq_verdict_ok; [apply x4_write_internal_verdict | apply cerr_w_ok].
  - apply wseq_verdict_ok; [apply cerr_w_ok|]. apply wseq_verdict_ok; [exact I|].
    apply wseq_verdict_ok; [apply x6_write_internal_verdict | apply cerr_w_ok].
  - exact I.
Qed.

Lemma drop_take_drop {A} (m r : N) (l : list A) : m <= r -> r <= len l ->
  drop m (take r l) ++ drop r l = drop m l.
Proof.
  intros H1 H2. rewrite <- (take_drop r l) at 3.
  unfold drop at 3. rewrite skipn_app.
  replace (N.to_nat m - length (take r l))%nat with 0%nat.
  2:{ pose proof (len_take r l) as E. rewrite N.min_l in E by exact H2. unfold len in E. lia. }
  reflexivity.
Qed.

Definition bres_of (required : N) (v : verdict) : bres :=
  match v with VOk => BOk required | VContent e => BContent e | VPanic => BPanic | VFuel => BFuel end.

Lemma final_write_to_slice_spec c buffer payload : bcfg_wf c ->
  let required := final_size c (len payload) in
  let p := final_write_with_net c payload in
  (len buffer < required -> final_write_to_slice c buffer payload = (BSpace required, buffer)) /\
  (required <= len buffer ->
     final_write_to_slice c buffer payload =
       (bres_of required (wprog_verdict p), wprog_bytes p ++ drop (len (wprog_bytes p)) buffer)) /\
  (wprog_verdict p = VOk -> len (wprog_bytes p) = required) /\
  len (wprog_bytes p) <= required /\
  verdict_ok (wprog_verdict p).
Proof.
  intros Hwf required p. pose proof (sized_final c payload Hwf) as [S1 S2]. fold p required in S1, S2.
  split; [|split; [|split; [exact S2 | split; [exact S1 | apply final_verdict_ok]]]].
  - intros H. unfold final_write_to_slice. fold required.
    destruct (N.ltb_spec (len buffer) required); [reflexivity | lia].
  - intros H. unfold final_write_to_slice. fold required p.
    destruct (N.ltb_spec (len buffer) required); [lia|].
    rewrite run_slice_fit; cbn [sw_buf sw_pos].
    2:{ rewrite len_take. lia. }
    rewrite take_0, N.add_0_l. cbn [app].
    assert (E : (wprog_bytes p ++ drop (len (wprog_bytes p)) (take required buffer)) ++ drop required buffer
                = wprog_bytes p ++ drop (len (wprog_bytes p)) buffer).
    { rewrite <- app_assoc. f_equal. apply drop_take_drop; lia. }
    destruct (wprog_verdict p); cbn [ret_of bres_of]; now rewrite E.
Qed.

Lemma header_write_to_slice_spec LEN layer enc slice : len enc = LEN ->
  (len slice < LEN ->
     header_write_to_slice LEN layer enc slice = (SErr (mk_slice_err LEN (len slice) layer 0), slice)) /\
  (LEN <= len slice ->
     header_write_to_slice LEN layer enc slice = (SOk LEN (len slice - LEN), enc ++ drop LEN slice)) /\
  snd (header_write_to_slice LEN layer enc slice) = snd (spec_slice_write enc slice) /\
  (fst (spec_slice_write enc slice) = None <-> LEN <= len slice).
Proof.
  intros He. unfold header_write_to_slice, spec_slice_write. rewrite He, N.eqb_refl.
  destruct (N.ltb_spec (len slice) LEN), (N.leb_spec LEN (len slice)); try lia; cbn [fst snd];
    repeat split; intros; first [reflexivity | lia | discriminate].
Qed.

Definition xres_of (acc : bytes) (r : bytes + iokind) : xres :=
  match r with inl bs => XOk (acc ++ bs) | inr k => XIo k end.

(* the source after k bytes were delivered / after it failed having delivered its j bytes *)
Definition adv_src (k : N) (s : fsource) : fsource :=
  mk_fsource (drop k (src_data s)) (src_chunk s) (src_err s) (src_pulled s + k).
Definition dead_src (j : N) (s : fsource) : fsource :=
  mk_fsource [] (src_chunk s) (src_err s) (src_pulled s + j).

Lemma fsource_eta s : mk_fsource (src_data s) (src_chunk s) (src_err s) (src_pulled s) = s.
Proof. destruct s; reflexivity. Qed.

Lemma adv_src_0 s : adv_src 0 s = s.
Proof. unfold adv_src. now rewrite drop_0, N.add_0_r, fsource_eta. Qed.

Lemma dead_src_nil s : src_data s = [] -> dead_src (len (src_data s)) s = s.
Proof. intros E. rewrite <- (fsource_eta s) at 3. unfold dead_src. now rewrite E, len_nil, N.add_0_r. Qed.

Lemma spec_read_exact_ok s n : n <= len (src_data s) ->
  spec_read_exact s n = (inl (take n (src_data s)), adv_src n s).
Proof. intros H. unfold spec_read_exact. apply N.leb_le in H. now rewrite H. Qed.

Lemma spec_read_exact_short s n : len (src_data s) < n ->
  spec_read_exact s n = (inr (src_kind s), dead_src (len (src_data s)) s).
Proof. intros H. unfold spec_read_exact. apply N.leb_gt in H. now rewrite H. Qed.

(* reading n bytes is reading m <= n of them and then the other n - m *)
Lemma spec_read_exact_split s m n : m <= n -> m <= len (src_data s) ->
  spec_read_exact s n =
    match spec_read_exact (adv_src m s) (n - m) with
    | (inl bs, s') => (inl (take m (src_data s) ++ bs), s')
    | (inr k, s') => (inr k, s')
    end.
Proof.
  intros Hm Hl. assert (Ld : len (src_data (adv_src m s)) = len (src_data s) - m) by apply len_drop.
  destruct (N.le_gt_cases n (len (src_data s))) as [E|E].
  - rewrite !spec_read_exact_ok by lia. unfold adv_src. cbn [src_data src_chunk src_err src_pulled].
    rewrite drop_drop, <- take_add, <- N.add_assoc. now replace (m + (n - m)) with n by lia.
  - rewrite !spec_read_exact_short by lia. rewrite Ld. unfold dead_src, adv_src, src_kind.
    cbn [src_chunk src_err src_pulled]. do 2 f_equal. lia.
Qed.

Lemma std_read_exact_spec fuel : forall s n acc,
  1 <= src_chunk s -> (N.to_nat n < fuel)%nat ->
  std_read_exact fuel s n acc = (xres_of acc (fst (spec_read_exact s n)), snd (spec_read_exact s n)).
Proof.
  induction fuel as [|f IH]; intros s n acc Hc Hf; [lia|].
  cbn [std_read_exact]. destruct (n =? 0) eqn:En.
  - apply N.eqb_eq in En. subst n. rewrite spec_read_exact_ok by lia. cbn [fst snd xres_of].
    now rewrite take_0, adv_src_0, app_nil_r.
  - apply N.eqb_neq in En. unfold src_read. destruct (src_data s) as [|d0 dr] eqn:Ed.
    + rewrite spec_read_exact_short, dead_src_nil by (rewrite ?Ed, ?len_nil; lia || reflexivity).
      unfold src_kind. destruct (src_err s); reflexivity.
    + rewrite <- Ed. assert (Hlen : 1 <= len (src_data s)) by (rewrite Ed; apply len_nonempty).
      set (m := N.min (N.min (len (src_data s)) (src_chunk s)) n).
      assert (Hm : 1 <= m <= n /\ m <= len (src_data s)) by (unfold m; lia).
      rewrite len_take, (N.min_l m) by lia.
      destruct (N.eqb_spec m 0); [lia|]. destruct (N.ltb_spec n m); [lia|].
      rewrite IH, (spec_read_exact_split s m n) by (exact Hc || lia).
      fold (adv_src m s).
      destruct (spec_read_exact (adv_src m s) (n - m)) as [[bs|k] s']; cbn [fst snd xres_of];
        [now rewrite app_assoc | reflexivity].
Qed.

Lemma io_read_exact_spec s n : 1 <= src_chunk s ->
  io_read_exact s n = (xres_of [] (fst (spec_read_exact s n)), snd (spec_read_exact s n)).
Proof. intros H. unfold io_read_exact. apply std_read_exact_spec; [exact H | lia]. Qed.

Lemma io_read_exact_ok s n : 1 <= src_chunk s -> n <= len (src_data s) ->
  io_read_exact s n =
    (XOk (take n (src_data s)),
     mk_fsource (drop n (src_data s)) (src_chunk s) (src_err s) (src_pulled s + n)).
Proof.
  intros Hc H. now rewrite io_read_exact_spec, spec_read_exact_ok.
Qed.

Lemma io_read_exact_fail s n : 1 <= src_chunk s -> len (src_data s) < n ->
  io_read_exact s n =
    (XIo (src_kind s),
     mk_fsource [] (src_chunk s) (src_err s) (src_pulled s + len (src_data s))).
Proof.
  intros Hc H. now rewrite io_read_exact_spec, spec_read_exact_short.
Qed.

Lemma checked_sub_le a b : b <= a -> checked_sub a b = Some (a - b).
Proof. intros H. unfold checked_sub. apply N.leb_le in H. now rewrite H. Qed.

(* a request beyond the budget *)
Lemma lr_read_exact_len r s n : lr_read r <= lr_max r -> lr_max r - lr_read r < n ->
  lr_read_exact r s n =
    (QLen (mk_lenerr (lr_read r + n) (lr_max r) (lr_source r) (lr_layer r) (lr_off r)), r, s).
Proof.
  intros Hi H. unfold lr_read_exact. rewrite checked_sub_le by exact Hi.
  apply N.ltb_lt in H. now rewrite H.
Qed.

(* a request within the budget is exactly the inner read_exact *)
Lemma lr_read_exact_within r s n : 1 <= src_chunk s -> lr_read r <= lr_max r -> n <= lr_max r - lr_read r ->
  lr_read_exact r s n =
    if n <=? len (src_data s)
    then (QOk (take n (src_data s)),
          mk_limrd (lr_max r) (lr_source r) (lr_layer r) (lr_off r) (lr_read r + n),
          mk_fsource (drop n (src_data s)) (src_chunk s) (src_err s) (src_pulled s + n))
    else (QIo (src_kind s), r,
          mk_fsource [] (src_chunk s) (src_err s) (src_pulled s + len (src_data s))).
Proof.
  intros Hc Hi H. unfold lr_read_exact. rewrite checked_sub_le by exact Hi.
  apply N.ltb_ge in H. rewrite H. destruct (N.leb_spec n (len (src_data s))) as [E|E].
  - now rewrite io_read_exact_ok.
  - now rewrite io_read_exact_fail.
Qed.

Definition bump (r : limrd) (n : N) : limrd :=
  mk_limrd (lr_max r) (lr_source r) (lr_layer r) (lr_off r) (lr_read r + n).

(* read_exact(n) on the inner reader, then `after` on success; `lim` is the
   LimitedReader state an error leaves behind *)
Definition pull (n : N) (lim : option limrd) (after : bytes -> fsource -> qres (list N) * rstate)
    (s : fsource) : qres (list N) * rstate :=
  match io_read_exact s n with
  | (XOk bs, s') => after bs s'
  | (XIo e, s') => (QIo e, mk_rstate s' lim)
  | (XPanic, s') => (QBad, mk_rstate s' lim)
  | (XFuel, s') => (QFuel, mk_rstate s' lim)
  end.

Lemma pull_ok n lim after s : 1 <= src_chunk s -> n <= len (src_data s) ->
  pull n lim after s = after (take n (src_data s)) (adv_src n s).
Proof. intros Hc H. unfold pull. now rewrite io_read_exact_ok. Qed.

Lemma pull_fail n lim after s : 1 <= src_chunk s -> len (src_data s) < n ->
  pull n lim after s = (QIo (src_kind s), mk_rstate (dead_src (len (src_data s)) s) lim).
Proof. intros Hc H. unfold pull. now rewrite io_read_exact_fail. Qed.

Lemma run_r_PRead_plain n k s :
  run_r (PRead n k) (mk_rstate s None) = pull n None (fun bs s' => run_r (k bs) (mk_rstate s' None)) s.
Proof. reflexivity. Qed.

Lemma run_r_PRead_lim n k s r :
  run_r (PRead n k) (mk_rstate s (Some r)) =
    match checked_sub (lr_max r) (lr_read r) with
    | None => (QUnderflow, mk_rstate s (Some r))
    | Some remaining =>
      if remaining <? n
      then (QLen (mk_lenerr (lr_read r + n) (lr_max r) (lr_source r) (lr_layer r) (lr_off r)),
            mk_rstate s (Some r))
      else pull n (Some r) (fun bs s' => run_r (k bs) (mk_rstate s' (Some (bump r n)))) s
    end.
Proof.
  cbn [run_r rs_lim rs_src]. unfold lr_read_exact, pull.
  destruct (checked_sub (lr_max r) (lr_read r)) as [rem|]; [|reflexivity].
  destruct (rem <? n); [reflexivity|]. destruct (io_read_exact s n) as [[bs|e| |] s']; reflexivity.
Qed.

Definition st_inv (st : rstate) : Prop :=
  1 <= src_chunk (rs_src st) /\
  match rs_lim st with Some r => lr_read r <= lr_max r | None => True end.

(* bytes already pulled plus what the budget still allows (and the source still has) *)
Definition slack (st : rstate) : N :=
  match rs_lim st with
  | Some r => src_pulled (rs_src st) + N.min (lr_max r - lr_read r) (len (src_data (rs_src st)))
  | None => 0
  end.

Definition limited (st : rstate) : Prop := rs_lim st <> None.

(* st' is a later state of a run that was in st *)
Definition later (st st' : rstate) : Prop :=
  st_inv st' /\ src_pulled (rs_src st) <= src_pulled (rs_src st') /\
  (limited st -> limited st' /\ slack st' <= slack st).

Lemma later_refl st : st_inv st -> later st st.
Proof. intros H. split; [exact H|]. split; [lia|]. intros L. split; [exact L | lia]. Qed.

Lemma later_trans a b c : later a b -> later b c -> later a c.
Proof.
  intros (_ & A2 & A3) (B1 & B2 & B3). split; [exact B1|]. split; [lia|].
  intros L. destruct (A3 L) as [Lb Sb]. destruct (B3 Lb) as [Lc Sc]. split; [exact Lc | lia].
Qed.

Lemma later_plain s st' : st_inv st' -> src_pulled s <= src_pulled (rs_src st') -> later (mk_rstate s None) st'.
Proof. intros H1 H2. split; [exact H1|]. split; [exact H2|]. intros L. now destruct L. Qed.

Lemma later_read s r n : st_inv (mk_rstate s (Some r)) -> n <= lr_max r - lr_read r ->
  n <= len (src_data s) ->
  later (mk_rstate s (Some r)) (mk_rstate (adv_src n s) (Some (bump r n))).
Proof.
  intros [Hc Hl] Hn E. cbn [rs_src rs_lim] in *. unfold later, st_inv, limited, slack.
  cbn [rs_src rs_lim adv_src bump src_chunk src_pulled src_data lr_max lr_read]. rewrite len_drop.
  repeat split; try discriminate; lia.
Qed.

Lemma later_fail s r n : st_inv (mk_rstate s (Some r)) -> n <= lr_max r - lr_read r ->
  len (src_data s) < n ->
  later (mk_rstate s (Some r)) (mk_rstate (dead_src (len (src_data s)) s) (Some r)).
Proof.
  intros [Hc Hl] Hn E. cbn [rs_src rs_lim] in *. unfold later, st_inv, limited, slack.
  cbn [rs_src rs_lim dead_src src_chunk src_pulled src_data]. rewrite len_nil.
  repeat split; try discriminate; lia.
Qed.

Lemma later_start s r layer : st_inv (mk_rstate s (Some r)) ->
  exists r', lr_start_layer r layer = Some r' /\ later (mk_rstate s (Some r)) (mk_rstate s (Some r')).
Proof.
  intros [Hc Hl]. cbn [rs_src rs_lim] in *. unfold lr_start_layer. rewrite checked_sub_le by exact Hl.
  eexists. split; [reflexivity|]. unfold later, st_inv, limited, slack.
  cbn [rs_src rs_lim lr_max lr_read]. repeat split; try discriminate; lia.
Qed.

Lemma run_r_inv p : forall st, st_inv st ->
  fst (run_r p st) <> QUnderflow /\ later st (snd (run_r p st)).
Proof.
  induction p as [a|c|e| | |n k IH|layer k IH|m ls off layer k IH]; intros st Hinv.
  1-5: split; [discriminate | apply later_refl, Hinv].
  - destruct st as [s [r|]]; pose proof Hinv as [Hc Hl]; cbn [rs_src rs_lim] in Hc, Hl.
    + rewrite run_r_PRead_lim, checked_sub_le by exact Hl.
      destruct (N.ltb_spec (lr_max r - lr_read r) n) as [Hn|Hn];
        [split; [discriminate | apply later_refl, Hinv]|].
      destruct (N.le_gt_cases n (len (src_data s))) as [E|E].
      * rewrite pull_ok by assumption. pose proof (later_read s r n Hinv Hn E) as R.
        destruct (IH (take n (src_data s)) _ (proj1 R)) as [I1 I2]. split; [exact I1 | exact (later_trans _ _ _ R I2)].
      * rewrite pull_fail by assumption. split; [discriminate | apply (later_fail s r n); assumption].
    + rewrite run_r_PRead_plain. destruct (N.le_gt_cases n (len (src_data s))) as [E|E].
      * rewrite pull_ok by assumption.
        destruct (IH (take n (src_data s)) (mk_rstate (adv_src n s) None)) as (I1 & I2 & I3 & _);
          [split; [exact Hc | exact I]|].
        split; [exact I1|]. apply later_plain; [exact I2|]. cbn [rs_src adv_src src_pulled] in I3. lia.
      * rewrite pull_fail by assumption. split; [discriminate|].
        apply later_plain; [split; [exact Hc | exact I] | cbn; lia].
  - destruct st as [s [r|]]; cbn [run_r rs_lim rs_src]; [|split; [discriminate | apply later_refl, Hinv]].
    destruct (later_start s r layer Hinv) as (r' & -> & R).
    destruct (IH _ (proj1 R)) as [I1 I2]. split; [exact I1 | exact (later_trans _ _ _ R I2)].
  - destruct st as [s [r|]]; cbn [run_r rs_lim rs_src]; [split; [discriminate | apply later_refl, Hinv]|].
    destruct (IH (mk_rstate s (Some (lr_new m ls off layer)))) as (I1 & I2 & I3 & _);
      [split; [apply Hinv | cbn; lia]|].
    split; [exact I1 | apply later_plain; assumption].
Qed.

(* the bound on the inner reader, for a program started on a LimitedReader *)
Lemma limited_pull_bound p s r : 1 <= src_chunk s -> lr_read r <= lr_max r ->
  let st' := snd (run_r p (mk_rstate s (Some r))) in
  fst (run_r p (mk_rstate s (Some r))) <> QUnderflow /\
  (exists r', rs_lim st' = Some r' /\ lr_read r' <= lr_max r') /\
  src_pulled s <= src_pulled (rs_src st') /\
  src_pulled (rs_src st') - src_pulled s <= lr_max r - lr_read r.
Proof.
  intros Hc Hi st'.
  destruct (run_r_inv p (mk_rstate s (Some r)) (conj Hc Hi)) as (I1 & [_ I2] & I3 & I4).
  fold st' in I2, I3, I4. destruct I4 as [I4 I5]; [discriminate|].
  unfold limited, slack in I4, I5. cbn [rs_src rs_lim] in I3, I5.
  destruct (rs_lim st') as [r'|]; [|congruence].
  split; [exact I1|]. split; [eauto|]. split; [exact I3 | lia].
Qed.

(* LimitedReader::new in the middle of a plain read (IpHeaders::read) *)
Lemma limit_pull_bound_mono m ls off layer k s : 1 <= src_chunk s ->
  let st' := snd (run_r (PLimit m ls off layer k) (mk_rstate s None)) in
  fst (run_r (PLimit m ls off layer k) (mk_rstate s None)) <> QUnderflow /\
  src_pulled s <= src_pulled (rs_src st') /\
  src_pulled (rs_src st') - src_pulled s <= m.
Proof.
  intros Hc. cbn [run_r rs_lim rs_src].
  destruct (limited_pull_bound k s (lr_new m ls off layer) Hc) as (I1 & _ & I3 & I4).
  { cbn. lia. }
  cbn [lr_new lr_max lr_read] in I4. rewrite N.sub_0_r in I4. split; [|split]; assumption.
Qed.

Lemma limit_pull_bound m ls off layer k s : 1 <= src_chunk s ->
  let st' := snd (run_r (PLimit m ls off layer k) (mk_rstate s None)) in
  fst (run_r (PLimit m ls off layer k) (mk_rstate s None)) <> QUnderflow /\
  src_pulled (rs_src st') - src_pulled s <= m.
Proof. intros Hc. destruct (limit_pull_bound_mono m ls off layer k s Hc) as (A & _ & B). now split. Qed.

Inductive safe : bool -> rprog -> Prop :=
  | safe_ret l a : safe l (PRet a)
  | safe_fail l c : safe l (PFail c)
  | safe_lenerr l e : safe l (PLenErr e)
  | safe_read l n k : (forall bs, len bs = n -> safe l (k bs)) -> safe l (PRead n k)
  | safe_start layer k : safe true k -> safe true (PStart layer k)
  | safe_limit m ls off layer k : safe true k -> safe false (PLimit m ls off layer k).

Definition good {A} (q : qres A) : Prop :=
  match q with QBad | QFuel | QUnderflow => False | _ => True end.

Lemma run_r_safe l p : safe l p -> forall st, st_inv st ->
  (l = true <-> limited st) -> good (fst (run_r p st)).
Proof.
  induction 1 as [l a|l c|l e|l n k Hk IH|layer k Hk IH|m ls off layer k Hk IH]; intros st Hinv Hl.
  1-3: exact I.
  - destruct st as [s [r|]]; pose proof Hinv as [Hc Hi]; cbn [rs_src rs_lim] in Hc, Hi.
    + rewrite run_r_PRead_lim, checked_sub_le by exact Hi.
      destruct (N.ltb_spec (lr_max r - lr_read r) n) as [Hn|Hn]; [exact I|].
      destruct (N.le_gt_cases n (len (src_data s))) as [E|E]; [|rewrite pull_fail by assumption; exact I].
      rewrite pull_ok by assumption.
      apply IH; [rewrite len_take; lia | apply (later_read s r n); assumption |].
      split; intros; [discriminate | apply Hl; discriminate].
    + rewrite run_r_PRead_plain.
      destruct (N.le_gt_cases n (len (src_data s))) as [E|E]; [|rewrite pull_fail by assumption; exact I].
      rewrite pull_ok by assumption.
      apply IH; [rewrite len_take; lia | split; [exact Hc | exact I] | exact Hl].
  - destruct st as [s [r|]]; cbn [run_r rs_lim rs_src].
    + destruct (later_start s r layer Hinv) as (r' & -> & R).
      apply IH; [apply R|]. split; intros; [discriminate | reflexivity].
    + destruct Hl as [Hl _]. now destruct (Hl eq_refl).
  - destruct st as [s [r|]]; cbn [run_r rs_lim rs_src].
    + destruct Hl as [_ Hl]. discriminate Hl. discriminate.
    + apply IH; [split; [apply Hinv | cbn; lia]|]. split; intros; [discriminate | reflexivity].
Qed.

Ltac n_facts :=
  repeat match goal with
         | H : (_ <? _) = false |- _ => apply N.ltb_ge in H
         | H : (_ <? _) = true |- _ => apply N.ltb_lt in H
         end.

Ltac safe_step :=
  match goal with
  | |- safe _ (PRet _) => constructor
  | |- safe _ (PFail _) => constructor
  | |- safe _ (PLenErr _) => constructor
  | |- safe _ (PRead _ _) => constructor; intros ?bs ?Hbs
  | |- safe true (PStart _ _) => constructor
  | |- safe false (PLimit _ _ _ _ _) => constructor
  | |- safe _ (at_ ?bs ?i _) =>
    let v := fresh "v" in let E := fresh "E" in
    destruct (rd_lt_Some bs i) as [v E]; [ n_facts; lia | unfold at_ at 1; rewrite E ]
  | |- safe _ (if ?b then _ else _) => destruct b eqn:?
  | |- safe _ (with_start ?l _ _) => unfold with_start
  end.

Lemma safe_read_fixed l n : safe l (read_fixed n).
Proof. unfold read_fixed. repeat safe_step. Qed.

Lemma safe_ipv4_header_read : safe false ipv4_header_read.
Proof. unfold ipv4_header_read, ipv4_read_without_version. repeat safe_step. Qed.

Lemma safe_ipv6_header_read : safe false ipv6_header_read.
Proof. unfold ipv6_header_read, ipv6_read_without_version. repeat safe_step. Qed.

Lemma safe_tcp_header_read : safe false tcp_header_read.
Proof. unfold tcp_header_read. repeat safe_step. Qed.

Lemma safe_icmpv4_header_read : safe false icmpv4_header_read.
Proof. unfold icmpv4_header_read. repeat safe_step. Qed.

Lemma safe_macsec_header_read : safe false macsec_header_read.
Proof. unfold macsec_header_read. repeat safe_step. Qed.

Lemma safe_arp_packet_read : safe false arp_packet_read.
Proof. unfold arp_packet_read. repeat safe_step. Qed.

Lemma safe_ip_auth_read lim k : (forall nh, safe lim (k nh)) -> safe lim (ip_auth_read lim k).
Proof. intros H. unfold ip_auth_read. destruct lim; repeat safe_step; apply H. Qed.

Lemma safe_raw_ext_read lim k : (forall nh, safe lim (k nh)) -> safe lim (ipv6_raw_ext_read lim k).
Proof. intros H. unfold ipv6_raw_ext_read. destruct lim; repeat safe_step; apply H. Qed.

Lemma safe_frag_read lim k : (forall nh, safe lim (k nh)) -> safe lim (ipv6_frag_read lim k).
Proof. intros H. unfold ipv6_frag_read. destruct lim; repeat safe_step; apply H. Qed.

Lemma safe_x4_read lim start : safe lim (x4_read lim start).
Proof.
  unfold x4_read. destruct (AUTH =? start); [|constructor].
  apply safe_ip_auth_read. intros nh. constructor.
Qed.

Definition unfilled (s : slots) : nat :=
  (b2nat (negb (s_dest s)) + b2nat (negb (s_route s)) + b2nat (negb (s_final s))
   + b2nat (negb (s_frag s)) + b2nat (negb (s_auth s)))%nat.

Lemma safe_x6_read_loop fuel : forall lim s next,
  (unfilled s < fuel)%nat -> safe lim (x6_read_loop fuel lim s next).
Proof.
  induction fuel as [|f IH]; intros lim s next Hf; [lia|].
  cbn [x6_read_loop].
  destruct (next =? IPV6_HOP_BY_HOP); [constructor|].
  destruct (next =? IPV6_DEST_OPTIONS).
  { destruct (s_route s) eqn:Er.
    - destruct (s_final s) eqn:Ef; [constructor|].
      apply safe_raw_ext_read. intros nh. apply IH.
      unfold unfilled in *. cbn [s_dest s_route s_final s_frag s_auth]. rewrite Ef, Er in Hf. cbn [negb b2nat] in *. lia.
    - destruct (s_dest s) eqn:Ed; [constructor|].
      apply safe_raw_ext_read. intros nh. apply IH.
      unfold unfilled in *. cbn [s_dest s_route s_final s_frag s_auth]. rewrite Ed, Er in Hf. cbn [negb b2nat] in *. lia. }
  destruct (next =? IPV6_ROUTE).
  { destruct (s_route s) eqn:Er; [constructor|].
    apply safe_raw_ext_read. intros nh. apply IH.
    unfold unfilled in *. cbn [s_dest s_route s_final s_frag s_auth]. rewrite Er in Hf. cbn [negb b2nat] in *. lia. }
  destruct (next =? IPV6_FRAG).
  { destruct (s_frag s) eqn:Er; [constructor|].
    apply safe_frag_read. intros nh. apply IH.
    unfold unfilled in *. cbn [s_dest s_route s_final s_frag s_auth]. rewrite Er in Hf. cbn [negb b2nat] in *. lia. }
  destruct (next =? AUTH).
  { destruct (s_auth s) eqn:Er; [constructor|].
    apply safe_ip_auth_read. intros nh. apply IH.
    unfold unfilled in *. cbn [s_dest s_route s_final s_frag s_auth]. rewrite Er in Hf. cbn [negb b2nat] in *. lia. }
  constructor.
Qed.

Lemma safe_x6_read lim start : safe lim (x6_read lim start).
Proof.
  unfold x6_read. destruct (IPV6_HOP_BY_HOP =? start).
  - apply safe_raw_ext_read. intros nh. apply safe_x6_read_loop. unfold unfilled, X6_READ_FUEL, no_slots. cbn. lia.
  - apply safe_x6_read_loop. unfold unfilled, X6_READ_FUEL, no_slots. cbn. lia.
Qed.

Lemma safe_ip_headers_read : safe false ip_headers_read.
Proof.
  unfold ip_headers_read, ipv6_read_without_version.
  constructor. intros b Hb. safe_step.
  destruct (v / 16 =? 4).
  - destruct (v mod 16 <? 5) eqn:Ei; [constructor|].
    constructor. intros rest Hrest. repeat safe_step; apply safe_x4_read.
  - destruct (v / 16 =? 6); [|constructor].
    constructor. intros buffer Hbuf. repeat safe_step. apply safe_x6_read.
Qed.

(* the two-part writers emit exactly fixed ++ variable part *)
Lemma two_part_writers h :
  (wprog_bytes (ipv4_header_write h) = two_bytes h /\ wprog_verdict (ipv4_header_write h) = VOk) /\
  (wprog_bytes (ip_auth_header_write h) = two_bytes h /\ wprog_verdict (ip_auth_header_write h) = VOk) /\
  (wprog_bytes (ipv6_raw_ext_header_write h) = two_bytes h /\ wprog_verdict (ipv6_raw_ext_header_write h) = VOk) /\
  (wprog_bytes (tcp_header_write h) = two_bytes h /\ wprog_verdict (tcp_header_write h) = VOk) /\
  (forall b, wprog_bytes (single_write b) = b /\ wprog_verdict (single_write b) = VOk).
Proof.
  unfold ipv4_header_write, ip_auth_header_write, ipv6_raw_ext_header_write, tcp_header_write,
    single_write, w1, two_bytes.
  cbn [wprog_bytes wprog_verdict]. rewrite !app_nil_r.
  repeat split; try reflexivity.
  - destruct (tp_var h); cbn [wprog_bytes]; now rewrite ?app_nil_r.
  - destruct (tp_var h); reflexivity.
  - apply app_nil_r.
Qed.

Lemma read_exact_closed_form s n : 1 <= src_chunk s ->
  io_read_exact s n =
    (match fst (spec_read_exact s n) with inl bs => XOk bs | inr k => XIo k end,
     snd (spec_read_exact s n)).
Proof.
  intros H. rewrite io_read_exact_spec by exact H. unfold xres_of.
  destruct (fst (spec_read_exact s n)); reflexivity.
Qed.

Lemma ip_headers_write_v4_verdict h proto x : verdict_ok (wprog_verdict (ip_headers_write_v4 h proto x)).
Proof. apply wseq_verdict_ok; [exact I | apply x4_write_internal_verdict]. Qed.

Lemma ip_headers_write_v6_verdict h nh x : verdict_ok (wprog_verdict (ip_headers_write_v6 h nh x)).
Proof. apply wseq_verdict_ok; [exact I | apply x6_write_internal_verdict]. Qed.

Lemma builder_write_fault c payload k chunk zero : 1 <= chunk ->
  let enc := wprog_bytes (final_write_with_net c payload) in
  let r := builder_write c payload (fresh_sink k chunk zero) in
  (k < len enc ->
     fst r = RIo (if zero then KWriteZero else KOther) /\ fs_got (snd r) = take k enc
     /\ is_prefix (fs_got (snd r)) enc) /\
  (len enc <= k -> fst r = ret_of (wprog_verdict (final_write_with_net c payload)) /\ fs_got (snd r) = enc) /\
  (fst (spec_fault_write enc k) = true <-> len enc <= k) /\
  fs_got (snd r) = snd (spec_fault_write enc k).
Proof. exact (write_fault_any (final_write_with_net c payload) k chunk zero). Qed.

(* a safe program started where the crate starts it: on a plain reader, or inside a
   LimitedReader with read_len <= max_len *)
Lemma safe_good lim p s r : safe lim p -> 1 <= src_chunk s -> lr_read r <= lr_max r ->
  good (fst (run_r p (mk_rstate s (if lim then Some r else None)))).
Proof.
  intros Hs Hc Hi. apply (run_r_safe lim p Hs).
  - split; [exact Hc|]. destruct lim; [exact Hi | exact I].
  - unfold limited. destruct lim; cbn [rs_lim]; split; intros; congruence.
Qed.

(* every reader of the crate, run on a plain source *)
Definition plain_readers : list rprog :=
  [read_fixed 14; read_fixed 4; read_fixed 16; read_fixed 8;
   ipv4_header_read; ipv6_header_read; tcp_header_read; icmpv4_header_read;
   macsec_header_read; arp_packet_read; ip_headers_read;
   ip_auth_read false (fun nh => PRet [nh]);
   ipv6_raw_ext_read false (fun nh => PRet [nh]);
   ipv6_frag_read false (fun nh => PRet [nh])].

Lemma plain_readers_good p s : In p plain_readers -> 1 <= src_chunk s ->
  good (fst (run_r p (mk_rstate s None))).
Proof.
  intros Hin Hc.
  assert (Hs : safe false p).
  { unfold plain_readers in Hin. cbn [In] in Hin.
    repeat (destruct Hin as [<-|Hin]; [
      first [ apply safe_read_fixed | apply safe_ipv4_header_read | apply safe_ipv6_header_read
            | apply safe_tcp_header_read | apply safe_icmpv4_header_read | apply safe_macsec_header_read
            | apply safe_arp_packet_read | apply safe_ip_headers_read
            | apply safe_ip_auth_read; intros; constructor
            | apply safe_raw_ext_read; intros; constructor
            | apply safe_frag_read; intros; constructor ] |]).
    contradiction. }
  exact (safe_good false p s (lr_new 0 0 0 0) Hs Hc (N.le_refl 0)).
Qed.

Lemma ext_readers_good (lim : bool) start s r : 1 <= src_chunk s -> lr_read r <= lr_max r ->
  let st := mk_rstate s (if lim then Some r else None) in
  good (fst (run_r (x6_read lim start) st)) /\ good (fst (run_r (x4_read lim start) st)).
Proof.
  intros Hc Hi st. split.
  - exact (safe_good lim _ s r (safe_x6_read lim start) Hc Hi).
  - exact (safe_good lim _ s r (safe_x4_read lim start) Hc Hi).
Qed.
