(* IoFault/Propagate.v -- property C16: error propagation made expressible.

   In IoFault/Model.v a write program is a list of `write_all` calls and the
   interpreter `run_w` returns the first failure: `writer.write_all(..)?` is the
   ONLY thing a `wprog` can say, a writer that drops an error
   (`let _ = writer.write_all(..);`) has no counterpart: there "never Ok on a
   fault" is a theorem about the interpreter, whatever was transliterated.

   Here the language has an explicit result-handling node:

       XWriteThen buf k        match writer.write_all(buf) { r => k r }

   where the continuation sees the Result (None = Ok(()), Some e = Err(e)), and a
   leaf `XErr e` (= `return Err(WriteError::Io(e))`).  Both `?` (xtry) and
   swallowing are programs.  Contents:

     A  run_x; the embedding of write programs (WWrite = xtry) commutes with the
        interpreters, for every device
     B  the propagating fragment (every write_all result is matched with
        `Err(e) => return Err(e)`): run_x = run_w of the stripped program, hence
        every theorem about write programs (fault positions, slice writer,
        builder) holds for it
     C  exactly which programs satisfy the fault property on the fail-stop sink:
        fault_ok p <-> handles p  (after every write that can fail, the error
        branch ends in Err(Io(that kind))), and a program that swallows an error
        as refuting witness (TcpHeader::write with
        `let _ = writer.write_all(options);`)
     D  the crate's writers as they are written in the Rust source (each
        `writer.write_all(..)?` / `.map_err(WriteError::Io)?` / a returned
        Result), polymorphic in the writer's error type; each is in the
        propagating fragment and strips to its Model.v transliteration
     E  the same for readers: YReadThen n k (the continuation sees Ok(bytes) /
        Err(Io) / Err(Len)), embedding, propagating fragment, refuting witness
        (IpHeaders::read swallowing the I/O error)

   That a crate function really is the program given in D is, as for every model
   in this development, tied to the code by the fault-injection run only. *)
From EP Require Import Base.Bytes Base.Lists IoFault.Spec IoFault.Model IoFault.Proofs IoFault.ReadFault.
Local Open Scope N_scope.

(* ================================================================ A *)
Inductive xprog (E : Type) :=
  | XRet (v : verdict)                               (* Ok(()) / Err(Content(..)) / panic / fuel *)
  | XErr (e : E)                                     (* return Err(Io(e)) *)
  | XWriteThen (b : bytes) (k : option E -> xprog E).  (* match writer.write_all(b) { r => k r } *)
Arguments XRet {E} v. Arguments XErr {E} e. Arguments XWriteThen {E} b k.

Section RunX.
  Context {W E : Type}.
  Variable wall : W -> bytes -> wres E * W.
  Fixpoint run_x (p : xprog E) (w : W) : wres E * W :=
    match p with
    | XRet v => (ret_of v, w)
    | XErr e => (RIo e, w)
    | XWriteThen b k =>
      match wall w b with
      | (ROk, w') => run_x (k None) w'
      | (RIo e, w') => run_x (k (Some e)) w'
      | (r, w') => (r, w')               (* a panic inside write_all is not a value *)
      end
    end.
End RunX.

(* `Err(e) => return Err(e)`, `Ok(()) => k` *)
Definition xq {E} (k : xprog E) : option E -> xprog E :=
  fun r => match r with None => k | Some e => XErr e end.
(* writer.write_all(b)?; k      (also: .map_err(WriteError::Io)?, .map_err(E::from)?) *)
Definition xtry {E} (b : bytes) (k : xprog E) : xprog E := XWriteThen b (xq k).

Fixpoint embed {E} (p : wprog) : xprog E :=
  match p with WRet v => XRet v | WWrite b k => xtry b (embed k) end.

Lemma run_x_embed {W E} (wall : W -> bytes -> wres E * W) p : forall w,
  run_x wall (embed p) w = run_w wall p w.
Proof.
  induction p as [v|b k IH]; intros w; cbn [embed run_x run_w xtry]; [reflexivity|].
  destruct (wall w b) as [[ |e|c| | ] w']; cbn [xq run_x]; try reflexivity. apply IH.
Qed.

(* ================================================================ B *)
Inductive propagating {E} : xprog E -> Prop :=
  | prop_ret v : propagating (XRet v)
  | prop_write b k : (forall e, k (Some e) = XErr e) -> propagating (k None) ->
                     propagating (XWriteThen b k).

(* the success path *)
Fixpoint strip {E} (p : xprog E) : wprog :=
  match p with
  | XRet v => WRet v
  | XErr _ => WRet VPanic                 (* not in the fragment *)
  | XWriteThen b k => WWrite b (strip (k None))
  end.

Lemma run_x_strip {W E} (wall : W -> bytes -> wres E * W) (p : xprog E) :
  propagating p -> forall w, run_x wall p w = run_w wall (strip p) w.
Proof.
  induction 1 as [v|b k He Hk IH]; intros w; cbn [run_x strip run_w]; [reflexivity|].
  destruct (wall w b) as [[ |e|c| | ] w']; try reflexivity.
  - apply IH.
  - rewrite He. reflexivity.
Qed.

Lemma prop_xtry {E} b (k : xprog E) : propagating k -> propagating (xtry b k).
Proof. intros H. apply prop_write; [reflexivity | exact H]. Qed.

Lemma prop_embed {E} p : propagating (@embed E p) /\ strip (@embed E p) = p.
Proof.
  induction p as [v|b k [IH1 IH2]]; cbn [embed]; split; try constructor; try reflexivity; try exact IH1.
  cbn [strip xtry xq]. now rewrite IH2.
Qed.

(* the fault theorem for the fragment *)
Lemma propagating_fault (p : xprog iokind) k chunk zero : propagating p -> 1 <= chunk ->
  let enc := wprog_bytes (strip p) in
  let r := run_x io_write_all p (fresh_sink k chunk zero) in
  (k < len enc ->
     fst r = RIo (if zero then KWriteZero else KOther) /\ fs_got (snd r) = take k enc
     /\ is_prefix (fs_got (snd r)) enc) /\
  (len enc <= k -> fst r = ret_of (wprog_verdict (strip p)) /\ fs_got (snd r) = enc) /\
  (fst (spec_fault_write enc k) = true <-> len enc <= k) /\
  fs_got (snd r) = snd (spec_fault_write enc k).
Proof.
  intros Hp Hc. cbn zeta. rewrite (run_x_strip io_write_all p Hp).
  apply (write_fault_any (strip p) k chunk zero Hc).
Qed.

(* ================================================================ C *)
Fixpoint xprog_bytes {E} (p : xprog E) : bytes :=
  match p with XRet _ | XErr _ => [] | XWriteThen b k => b ++ xprog_bytes (k None) end.
Fixpoint xprog_result {E} (p : xprog E) : wres E :=
  match p with XRet v => ret_of v | XErr e => RIo e | XWriteThen _ k => xprog_result (k None) end.

Definition wkind (zero : bool) : iokind := if zero then KWriteZero else KOther.

(* the fault property of one program (first two conjuncts of C16_write_fault) *)
Definition fault_from (g : bytes) (p : xprog iokind) : Prop :=
  forall k chunk zero, 1 <= chunk ->
    let enc := xprog_bytes p in
    let r := run_x io_write_all p (mk_fsink k chunk zero g) in
    (k < len enc -> fst r = RIo (wkind zero) /\ fs_got (snd r) = g ++ take k enc) /\
    (len enc <= k -> fst r = xprog_result p /\ fs_got (snd r) = g ++ enc).
Definition fault_ok (p : xprog iokind) : Prop := fault_from [] p.

(* the program on a sink that accepts nothing more: every non-empty write fails *)
Fixpoint dead_run (kd : iokind) (p : xprog iokind) : wres iokind :=
  match p with
  | XRet v => ret_of v
  | XErr e => RIo e
  | XWriteThen b k => match b with [] => dead_run kd (k None) | _ => dead_run kd (k (Some kd)) end
  end.

(* after every write that can fail, the error branch ends in Err(Io(kind)) *)
Fixpoint handles (p : xprog iokind) : Prop :=
  match p with
  | XRet _ | XErr _ => True
  | XWriteThen b k =>
    handles (k None) /\
    (b <> [] -> forall zero, dead_run (wkind zero) (k (Some (wkind zero))) = RIo (wkind zero))
  end.

Lemma io_write_all_cases B c z g b : 1 <= c ->
  io_write_all (mk_fsink B c z g) b =
    if len b <=? B then (ROk, mk_fsink (B - len b) c z (g ++ b))
    else (RIo (wkind z), mk_fsink 0 c z (g ++ take B b)).
Proof.
  intros Hc. rewrite write_all_closed_form by exact Hc. unfold spec_write_all.
  cbn [fs_budget fs_chunk fs_zero fs_got]. destruct (len b <=? B); reflexivity.
Qed.

Lemma run_dead p : forall c z g, 1 <= c ->
  run_x io_write_all p (mk_fsink 0 c z g) = (dead_run (wkind z) p, mk_fsink 0 c z g).
Proof.
  induction p as [v|e|b k IH]; intros c z g Hc; cbn [run_x dead_run]; try reflexivity.
  rewrite io_write_all_cases by exact Hc. destruct b as [|b0 bt].
  - change (len [] <=? 0) with true. cbv iota. rewrite N.sub_0_r, app_nil_r. apply IH. exact Hc.
  - destruct (N.leb_spec (len (b0 :: bt)) 0) as [E|_]; [pose proof (len_nonempty b0 bt); lia|].
    rewrite take_0, app_nil_r. apply IH. exact Hc.
Qed.

Lemma handles_fault p : forall g, handles p -> fault_from g p.
Proof.
  induction p as [v|e|b k IH]; intros g Hh B c z Hc; cbn zeta.
  - cbn [xprog_bytes run_x xprog_result fst snd fs_got]. rewrite len_nil, app_nil_r. split; [lia|auto].
  - cbn [xprog_bytes run_x xprog_result fst snd fs_got]. rewrite len_nil, app_nil_r. split; [lia|auto].
  - destruct Hh as [Hn He]. cbn [xprog_bytes run_x xprog_result]. rewrite len_app.
    rewrite io_write_all_cases by exact Hc. destruct (N.leb_spec (len b) B) as [Eb|Eb].
    + destruct (IH None (g ++ b) Hn (B - len b) c z Hc) as [I1 I2]. split.
      * intros Hk. destruct I1 as [I1a I1b]; [lia|]. split; [exact I1a|].
        rewrite I1b, <- app_assoc. f_equal. now rewrite take_app_r by exact Eb.
      * intros Hk. destruct I2 as [I2a I2b]; [lia|]. split; [exact I2a|].
        rewrite I2b. now rewrite app_assoc.
    + rewrite run_dead by exact Hc. cbn [fst snd fs_got].
      assert (Hb : b <> []) by (intros ->; rewrite len_nil in Eb; lia).
      split; [|lia]. intros _. split; [apply He; exact Hb|].
      f_equal. now rewrite take_app_l by lia.
Qed.

Lemma fault_handles p : forall g, fault_from g p -> handles p.
Proof.
  induction p as [v|e|b k IH]; intros g Hf; cbn [handles]; auto.
  split.
  - apply (IH None (g ++ b)). intros B c z Hc. cbn zeta.
    specialize (Hf (len b + B) c z Hc). cbn zeta in Hf.
    cbn [xprog_bytes run_x xprog_result] in Hf. rewrite len_app in Hf.
    rewrite io_write_all_cases in Hf by exact Hc.
    destruct (N.leb_spec (len b) (len b + B)) as [_|E]; [|lia].
    replace (len b + B - len b) with B in Hf by lia.
    destruct Hf as [F1 F2]. split.
    + intros Hk. destruct F1 as [F1a F1b]; [lia|]. split; [exact F1a|].
      rewrite F1b, <- app_assoc. f_equal. rewrite take_app_r by lia. f_equal. f_equal. lia.
    + intros Hk. destruct F2 as [F2a F2b]; [lia|]. split; [exact F2a|].
      rewrite F2b. now rewrite app_assoc.
  - intros Hb zero. specialize (Hf 0 1 zero (N.le_refl 1)). cbn zeta in Hf.
    cbn [xprog_bytes run_x] in Hf. rewrite len_app in Hf.
    rewrite io_write_all_cases in Hf by lia.
    destruct b as [|b0 bt]; [congruence|]. pose proof (len_nonempty b0 bt) as Hl.
    destruct (N.leb_spec (len (b0 :: bt)) 0) as [E|_]; [lia|].
    rewrite run_dead in Hf by lia. cbn [fst] in Hf.
    destruct Hf as [[F _] _]; [lia | exact F].
Qed.

Lemma fault_iff_handles p : fault_ok p <-> handles p.
Proof. split; [apply fault_handles | apply handles_fault]. Qed.

Lemma propagating_handles p : propagating p -> handles p.
Proof.
  induction 1 as [v|b k He Hk IH]; cbn [handles]; [exact I|].
  split; [exact IH|]. intros _ zero. rewrite He. reflexivity.
Qed.

Lemma propagating_bytes {E} (p : xprog E) : propagating p ->
  xprog_bytes p = wprog_bytes (strip p) /\ xprog_result p = ret_of (wprog_verdict (strip p)).
Proof.
  induction 1 as [v|b k He Hk [IH1 IH2]]; cbn [xprog_bytes xprog_result strip wprog_bytes wprog_verdict].
  - auto.
  - rewrite IH1, IH2. auto.
Qed.

(* TcpHeader::write with `let _ = writer.write_all(options);` *)
Definition swallowing_tcp_write (h : two_part) : xprog iokind :=
  xtry (tp_fixed h)
    (match tp_var h with
     | [] => XRet VOk
     | _ => XWriteThen (tp_var h) (fun _ => XRet VOk)
     end).

Definition ex_tcp : two_part := mk_two (repeat 1 20) [2; 4; 5; 180].

Lemma swallow_refuted :
  ~ fault_ok (swallowing_tcp_write ex_tcp) /\
  run_x io_write_all (swallowing_tcp_write ex_tcp) (fresh_sink 21 3 false)
    = (ROk, mk_fsink 0 3 false (repeat 1 20 ++ [2])) /\
  len (xprog_bytes (swallowing_tcp_write ex_tcp)) = 24.
Proof.
  split; [|split; vm_compute; reflexivity].
  intros H. specialize (H 21 3 false). cbn zeta in H. destruct H as [H _]; [vm_compute; discriminate|].
  destruct H as [H _]; [vm_compute; reflexivity|]. vm_compute in H. discriminate H.
Qed.

(* ================================================================ D *)
(* `a?; b` *)
Fixpoint xseq {E} (a b : xprog E) : xprog E :=
  match a with
  | XRet VOk => b
  | XRet v => XRet v
  | XErr e => XErr e
  | XWriteThen p k => XWriteThen p (fun r => xseq (k r) b)
  end.

Lemma prop_xseq {E} (a b : xprog E) : propagating a -> propagating b -> propagating (xseq a b).
Proof.
  induction 1 as [v|p k He Hk IH]; intros Hb; cbn [xseq].
  - destruct v; try constructor. exact Hb.
  - constructor; [|apply IH; exact Hb]. intros e. now rewrite He.
Qed.

Lemma strip_xseq {E} (a b : xprog E) : propagating a -> strip (xseq a b) = wseq (strip a) (strip b).
Proof.
  induction 1 as [v|p k He Hk IH]; cbn [xseq strip wseq].
  - destruct v; reflexivity.
  - now rewrite IH.
Qed.

Section Crate.
  Context {E : Type}.

  (* Ethernet2Header, LinuxSllHeader, LinkHeader, MacsecHeader, SingleVlanHeader,
     ArpPacket, Ipv6Header, Ipv6FragmentHeader, UdpHeader, Icmpv4Header,
     Icmpv6Header, TransportHeader, Icmpv6Payload ::write:
       writer.write_all(&self.to_bytes())        -- the Result is returned as it is
     (ArpPacket, UdpHeader: `writer.write_all(&self.to_bytes())?; Ok(())`) *)
  Definition x_single_write (to_bytes : bytes) : xprog E :=
    XWriteThen to_bytes (fun r => match r with None => XRet VOk | Some e => XErr e end).

  (* Ipv4Header::write_ipv4_header_internal:
       write.write_all(&header_raw)?; write.write_all(&self.options)?; Ok(()) *)
  Definition x_ipv4_header_write (h : two_part) : xprog E :=
    xtry (tp_fixed h) (xtry (tp_var h) (XRet VOk)).
  (* IpAuthHeader::write: writer.write_all(&[..12 bytes..])?; writer.write_all(self.raw_icv())?; Ok(()) *)
  Definition x_ip_auth_header_write (h : two_part) : xprog E :=
    xtry (tp_fixed h) (xtry (tp_var h) (XRet VOk)).
  (* Ipv6RawExtHeader::write: writer.write_all(&[nh, len])?; writer.write_all(self.payload())?; Ok(()) *)
  Definition x_ipv6_raw_ext_header_write (h : two_part) : xprog E :=
    xtry (tp_fixed h) (xtry (tp_var h) (XRet VOk)).
  (* TcpHeader::write: writer.write_all(&[..20 bytes..])?;
       if !options.is_empty() { writer.write_all(options)?; }  Ok(()) *)
  Definition x_tcp_header_write (h : two_part) : xprog E :=
    xtry (tp_fixed h)
      (match tp_var h with [] => XRet VOk | _ => xtry (tp_var h) (XRet VOk) end).

  (* Ipv4Extensions::write_internal:
       writer.write_all(&header.to_bytes()).map_err(WriteError::Io)   (returned) *)
  Definition x_x4_write_internal (x : exts4) (start_ip_number : N) : xprog E :=
    match x4_auth x with
    | Some header =>
      if AUTH =? start_ip_number then x_single_write (e_enc header)
      else XRet (VContent (CNotReferenced AUTH))
    | None => XRet VOk
    end.

  (* Ipv6Extensions::write_internal: every arm is
       writer.write_all(&header.to_bytes()).map_err(WriteError::Io)?;
       next_header = header.next_header; needs_write.<slot> = false; *)
  Fixpoint x_x6_loop (fuel : nat) (x : exts6) (nw : needs) (next_header : N)
           (route_written : bool) : xprog E :=
    match fuel with
    | O => XRet VFuel
    | S f =>
      if next_header =? IPV6_HOP_BY_HOP then
        if n_hop nw then XRet (VContent CHopNotAtStart) else XRet (x6_final nw)
      else if next_header =? IPV6_DEST_OPTIONS then
        if route_written then
          if n_final nw then
            match x6_routing x with
            | Some (_, Some header) =>
              xtry (e_enc header) (x_x6_loop f x (set_final nw) (e_nh header) route_written)
            | _ => XRet VPanic
            end
          else XRet (x6_final nw)
        else if n_dest nw then
          match x6_dest x with
          | Some header =>
            xtry (e_enc header) (x_x6_loop f x (set_dest nw) (e_nh header) route_written)
          | None => XRet VPanic
          end
        else XRet (x6_final nw)
      else if next_header =? IPV6_ROUTE then
        if n_route nw then
          match x6_routing x with
          | Some (header, _) =>
            xtry (e_enc header) (x_x6_loop f x (set_route nw) (e_nh header) true)
          | None => XRet VPanic
          end
        else XRet (x6_final nw)
      else if next_header =? IPV6_FRAG then
        if n_frag nw then
          match x6_frag x with
          | Some header =>
            xtry (e_enc header) (x_x6_loop f x (set_frag nw) (e_nh header) route_written)
          | None => XRet VPanic
          end
        else XRet (x6_final nw)
      else if next_header =? AUTH then
        if n_auth nw then
          match x6_auth x with
          | Some header =>
            xtry (e_enc header) (x_x6_loop f x (set_auth nw) (e_nh header) route_written)
          | None => XRet VPanic
          end
        else XRet (x6_final nw)
      else XRet (x6_final nw)
    end.

  Definition x_x6_write_internal (x : exts6) (first_header : N) : xprog E :=
    let nw := x6_needs x in
    if IPV6_HOP_BY_HOP =? first_header then
      match x6_hop x with
      | Some header =>
        xtry (e_enc header) (x_x6_loop X6_FUEL x (set_hop nw) (e_nh header) false)
      | None => x_x6_loop X6_FUEL x nw first_header false
      end
    else x_x6_loop X6_FUEL x nw first_header false.

  (* IpHeaders::write: header.write(writer)?; extensions.write(writer, header.protocol) *)
  Definition x_ip_headers_write_v4 (h : two_part) (protocol : N) (x : exts4) : xprog E :=
    xseq (x_ipv4_header_write h) (x_x4_write_internal x protocol).
  Definition x_ip_headers_write_v6 (h : bytes) (next_header : N) (x : exts6) : xprog E :=
    xseq (x_single_write h) (x_x6_write_internal x next_header).

  (* packet_builder.rs final_write_with_net: every call is
       writer.write_all(&<part>.to_bytes()).map_err(E::from)?; *)
  Definition x_opt_w (o : option part) : xprog E :=
    match o with Some p => xtry (p_enc p) (XRet VOk) | None => XRet VOk end.
  Fixpoint x_parts_w (ps : list part) : xprog E :=
    match ps with [] => XRet VOk | p :: r => xtry (p_enc p) (x_parts_w r) end.
  Definition x_cerr_w (o : option cerr) : xprog E :=
    match o with Some c => XRet (VContent c) | None => XRet VOk end.

  Definition x_final_write_with_net (c : bcfg) (payload : bytes) : xprog E :=
    xseq (x_opt_w (b_link c))
    (xseq (x_parts_w (b_vlan c))
    (xseq (match b_net c with
           | BIpv4 ip protocol exts =>
             xseq (x_cerr_w (b_pre c))
             (xseq (xtry (p_enc ip) (XRet VOk))
             (xseq (x_x4_write_internal exts protocol) (x_cerr_w (b_mid c))))
           | BIpv6 ip next_header exts =>
             xseq (x_cerr_w (b_pre c))
             (xseq (xtry (p_enc ip) (XRet VOk))
             (xseq (x_x6_write_internal exts next_header) (x_cerr_w (b_mid c))))
           | BArp arp => xtry (p_enc arp) (XRet VOk)
           end)
    (xseq (x_opt_w (b_transport c))
          (xtry payload (XRet VOk))))).

  (* in the fragment, and the success path is the Model.v transliteration *)
  Definition agrees (p : xprog E) (q : wprog) : Prop := propagating p /\ strip p = q.

  Lemma agrees_ret v : agrees (XRet v) (WRet v).
  Proof. split; [constructor | reflexivity]. Qed.

  Lemma agrees_xtry b p q : agrees p q -> agrees (xtry b p) (WWrite b q).
  Proof. intros [H1 H2]. split; [apply prop_xtry; exact H1 | cbn [strip xtry xq]; now rewrite H2]. Qed.

  Lemma agrees_xseq a b qa qb : agrees a qa -> agrees b qb -> agrees (xseq a b) (wseq qa qb).
  Proof.
    intros [A1 A2] [B1 B2]. split; [apply prop_xseq; assumption|].
    rewrite strip_xseq by exact A1. now rewrite A2, B2.
  Qed.

  Lemma agrees_single b : agrees (x_single_write b) (single_write b).
  Proof. apply (agrees_xtry b (XRet VOk) (WRet VOk)). apply agrees_ret. Qed.

  Lemma agrees_two h :
    agrees (x_ipv4_header_write h) (ipv4_header_write h) /\
    agrees (x_ip_auth_header_write h) (ip_auth_header_write h) /\
    agrees (x_ipv6_raw_ext_header_write h) (ipv6_raw_ext_header_write h) /\
    agrees (x_tcp_header_write h) (tcp_header_write h).
  Proof.
    repeat split; try (repeat apply prop_xtry; constructor); try reflexivity.
    - unfold x_tcp_header_write. apply prop_xtry. destruct (tp_var h); [constructor | apply prop_xtry; constructor].
    - unfold x_tcp_header_write, tcp_header_write. destruct (tp_var h); reflexivity.
  Qed.

  Lemma agrees_x4 x start : agrees (x_x4_write_internal x start) (x4_write_internal x start).
  Proof.
    unfold x_x4_write_internal, x4_write_internal. destruct (x4_auth x); [|apply agrees_ret].
    destruct (AUTH =? start); [apply agrees_single | apply agrees_ret].
  Qed.

  Lemma agrees_x6_loop fuel : forall x nw next rw,
    agrees (x_x6_loop fuel x nw next rw) (x6_loop fuel x nw next rw).
  Proof.
    induction fuel as [|f IH]; intros x nw next rw; cbn [x_x6_loop x6_loop]; [apply agrees_ret|].
    destruct (next =? IPV6_HOP_BY_HOP); [destruct (n_hop nw); apply agrees_ret|].
    destruct (next =? IPV6_DEST_OPTIONS).
    { destruct rw.
      - destruct (n_final nw); [|apply agrees_ret].
        destruct (x6_routing x) as [[r [h|]]|]; try apply agrees_ret. apply agrees_xtry, IH.
      - destruct (n_dest nw); [|apply agrees_ret].
        destruct (x6_dest x) as [h|]; [apply agrees_xtry, IH | apply agrees_ret]. }
    destruct (next =? IPV6_ROUTE).
    { destruct (n_route nw); [|apply agrees_ret].
      destruct (x6_routing x) as [[h fo]|]; [apply agrees_xtry, IH | apply agrees_ret]. }
    destruct (next =? IPV6_FRAG).
    { destruct (n_frag nw); [|apply agrees_ret].
      destruct (x6_frag x) as [h|]; [apply agrees_xtry, IH | apply agrees_ret]. }
    destruct (next =? AUTH).
    { destruct (n_auth nw); [|apply agrees_ret].
      destruct (x6_auth x) as [h|]; [apply agrees_xtry, IH | apply agrees_ret]. }
    apply agrees_ret.
  Qed.

  Lemma agrees_x6 x first : agrees (x_x6_write_internal x first) (x6_write_internal x first).
  Proof.
    unfold x_x6_write_internal, x6_write_internal.
    destruct (IPV6_HOP_BY_HOP =? first); [|apply agrees_x6_loop].
    destruct (x6_hop x); [apply agrees_xtry|]; apply agrees_x6_loop.
  Qed.

  Lemma agrees_opt o : agrees (x_opt_w o) (opt_w o).
  Proof. destruct o; [apply (agrees_xtry _ (XRet VOk) (WRet VOk))|]; apply agrees_ret. Qed.
  Lemma agrees_parts ps : agrees (x_parts_w ps) (parts_w ps).
  Proof. induction ps; cbn [x_parts_w parts_w]; [apply agrees_ret | apply agrees_xtry; assumption]. Qed.
  Lemma agrees_cerr o : agrees (x_cerr_w o) (cerr_w o).
  Proof. destruct o; apply agrees_ret. Qed.

  Lemma agrees_final c payload : agrees (x_final_write_with_net c payload) (final_write_with_net c payload).
  Proof.
    unfold x_final_write_with_net, final_write_with_net.
    apply agrees_xseq; [apply agrees_opt|].
    apply agrees_xseq; [apply agrees_parts|].
    apply agrees_xseq.
    - destruct (b_net c).
      + apply agrees_xseq; [apply agrees_cerr|].
        apply agrees_xseq; [apply (agrees_xtry _ (XRet VOk) (WRet VOk)), agrees_ret|].
        apply agrees_xseq; [apply agrees_x4 | apply agrees_cerr].
      + apply agrees_xseq; [apply agrees_cerr|].
        apply agrees_xseq; [apply (agrees_xtry _ (XRet VOk) (WRet VOk)), agrees_ret|].
        apply agrees_xseq; [apply agrees_x6 | apply agrees_cerr].
      + apply (agrees_xtry _ (XRet VOk) (WRet VOk)), agrees_ret.
    - apply agrees_xseq; [apply agrees_opt|].
      apply (agrees_xtry _ (XRet VOk) (WRet VOk)), agrees_ret.
  Qed.
End Crate.

Lemma crate_writers_propagate (E : Type) :
  (forall b, @agrees E (x_single_write b) (single_write b)) /\
  (forall h, @agrees E (x_ipv4_header_write h) (ipv4_header_write h) /\
             @agrees E (x_ip_auth_header_write h) (ip_auth_header_write h) /\
             @agrees E (x_ipv6_raw_ext_header_write h) (ipv6_raw_ext_header_write h) /\
             @agrees E (x_tcp_header_write h) (tcp_header_write h)) /\
  (forall x start, @agrees E (x_x4_write_internal x start) (x4_write_internal x start)) /\
  (forall x first, @agrees E (x_x6_write_internal x first) (x6_write_internal x first)) /\
  (forall h proto x, @agrees E (x_ip_headers_write_v4 h proto x) (ip_headers_write_v4 h proto x)) /\
  (forall h nh x, @agrees E (x_ip_headers_write_v6 h nh x) (ip_headers_write_v6 h nh x)) /\
  (forall c payload, @agrees E (x_final_write_with_net c payload) (final_write_with_net c payload)).
Proof.
  split; [exact agrees_single|]. split; [exact agrees_two|]. split; [exact agrees_x4|].
  split; [exact agrees_x6|]. split; [|split].
  - intros. apply agrees_xseq; [apply agrees_two | apply agrees_x4].
  - intros. apply agrees_xseq; [apply agrees_single | apply agrees_x6].
  - exact agrees_final.
Qed.

(* what `agrees` buys: on every device the explicit program runs like the
   write program of Model.v *)
Lemma agrees_run {W E} (wall : W -> bytes -> wres E * W) p q :
  agrees p q -> forall w, run_x wall p w = run_w wall q w.
Proof. intros [H1 <-]. apply run_x_strip. exact H1. Qed.

(* ================================================================ E: readers *)
(* what `reader.read_exact(..)` of a plain reader / of a LimitedReader returns *)
Inductive rdres := DOk (bs : bytes) | DIo (k : iokind) | DLen (e : lenerr).

Inductive yprog :=
  | YRet (summary : list N)
  | YFail (c : cerr)
  | YLenErr (e : lenerr)
  | YIoErr (k : iokind)                        (* return Err(Io(e)) *)
  | YBad
  | YFuelOut
  | YReadThen (n : N) (k : rdres -> yprog)      (* match reader.read_exact(&mut buf[..n]) { r => k r } *)
  | YStart (layer : N) (k : yprog)
  | YLimit (max_len len_source layer_offset layer : N) (k : yprog).

Fixpoint run_y (p : yprog) (st : rstate) : qres (list N) * rstate :=
  match p with
  | YRet a => (QOk a, st)
  | YFail c => (QContent c, st)
  | YLenErr e => (QLen e, st)
  | YIoErr e => (QIo e, st)
  | YBad => (QBad, st)
  | YFuelOut => (QFuel, st)
  | YReadThen n k =>
    match rs_lim st with
    | None =>
      match io_read_exact (rs_src st) n with
      | (XOk bs, s') => run_y (k (DOk bs)) (mk_rstate s' None)
      | (XIo e, s') => run_y (k (DIo e)) (mk_rstate s' None)
      | (XPanic, s') => (QBad, mk_rstate s' None)
      | (XFuel, s') => (QFuel, mk_rstate s' None)
      end
    | Some r =>
      match lr_read_exact r (rs_src st) n with
      | (QOk bs, r', s') => run_y (k (DOk bs)) (mk_rstate s' (Some r'))
      | (QIo e, r', s') => run_y (k (DIo e)) (mk_rstate s' (Some r'))
      | (QLen e, r', s') => run_y (k (DLen e)) (mk_rstate s' (Some r'))
      | (QContent c, r', s') => (QContent c, mk_rstate s' (Some r'))
      | (QUnderflow, r', s') => (QUnderflow, mk_rstate s' (Some r'))
      | (QBad, r', s') => (QBad, mk_rstate s' (Some r'))
      | (QFuel, r', s') => (QFuel, mk_rstate s' (Some r'))
      end
    end
  | YStart layer k =>
    match rs_lim st with
    | None => (QBad, st)
    | Some r =>
      match lr_start_layer r layer with
      | None => (QUnderflow, st)
      | Some r' => run_y k (mk_rstate (rs_src st) (Some r'))
      end
    end
  | YLimit m ls off layer k =>
    match rs_lim st with
    | None => run_y k (mk_rstate (rs_src st) (Some (lr_new m ls off layer)))
    | Some _ => (QBad, st)
    end
  end.

(* reader.read_exact(..)?; (LimitedReader: .map_err(..)? keeps Io as Io and Len as Len) *)
Definition yq (k : bytes -> yprog) : rdres -> yprog :=
  fun r => match r with DOk bs => k bs | DIo e => YIoErr e | DLen e => YLenErr e end.

Fixpoint embed_r (p : rprog) : yprog :=
  match p with
  | PRet a => YRet a
  | PFail c => YFail c
  | PLenErr e => YLenErr e
  | PBad => YBad
  | PFuelOut => YFuelOut
  | PRead n k => YReadThen n (yq (fun bs => embed_r (k bs)))
  | PStart layer k => YStart layer (embed_r k)
  | PLimit m ls off layer k => YLimit m ls off layer (embed_r k)
  end.

(* a read node whose continuation returns the two errors as they are runs like PRead *)
Lemma run_y_read n ky kr st :
  (forall e, ky (DIo e) = YIoErr e) -> (forall e, ky (DLen e) = YLenErr e) ->
  (forall bs st', run_y (ky (DOk bs)) st' = run_r (kr bs) st') ->
  run_y (YReadThen n ky) st = run_r (PRead n kr) st.
Proof.
  intros Hio Hlen Hk. cbn [run_y run_r]. destruct (rs_lim st) as [r|].
  - destruct (lr_read_exact r (rs_src st) n) as [[[bs|e|e|c| | | ] r'] s'];
      rewrite ?Hio, ?Hlen; try reflexivity. apply Hk.
  - destruct (io_read_exact (rs_src st) n) as [[bs|e| | ] s']; rewrite ?Hio; try reflexivity. apply Hk.
Qed.

Lemma run_y_embed p : forall st, run_y (embed_r p) st = run_r p st.
Proof.
  induction p as [a|c|e| | |n k IH|layer k IH|m ls off layer k IH]; intros st;
    cbn [embed_r run_y run_r]; try reflexivity.
  - apply run_y_read; [reflexivity | reflexivity | intros; apply IH].
  - destruct (rs_lim st) as [r|]; [|reflexivity]. destruct (lr_start_layer r layer); [apply IH | reflexivity].
  - destruct (rs_lim st) as [r|]; [reflexivity | apply IH].
Qed.

Inductive propagating_r : yprog -> Prop :=
  | propr_ret a : propagating_r (YRet a)
  | propr_fail c : propagating_r (YFail c)
  | propr_lenerr e : propagating_r (YLenErr e)
  | propr_bad : propagating_r YBad
  | propr_fuel : propagating_r YFuelOut
  | propr_read n k : (forall e, k (DIo e) = YIoErr e) -> (forall e, k (DLen e) = YLenErr e) ->
                     (forall bs, propagating_r (k (DOk bs))) -> propagating_r (YReadThen n k)
  | propr_start layer k : propagating_r k -> propagating_r (YStart layer k)
  | propr_limit m ls off layer k : propagating_r k -> propagating_r (YLimit m ls off layer k).

Fixpoint strip_r (p : yprog) : rprog :=
  match p with
  | YRet a => PRet a
  | YFail c => PFail c
  | YLenErr e => PLenErr e
  | YIoErr _ => PBad                      (* not in the fragment *)
  | YBad => PBad
  | YFuelOut => PFuelOut
  | YReadThen n k => PRead n (fun bs => strip_r (k (DOk bs)))
  | YStart layer k => PStart layer (strip_r k)
  | YLimit m ls off layer k => PLimit m ls off layer (strip_r k)
  end.

Lemma run_y_strip p : propagating_r p -> forall st, run_y p st = run_r (strip_r p) st.
Proof.
  induction 1 as [a|c|e| | |n k Hio Hlen Hk IH|layer k Hk IH|m ls off layer k Hk IH]; intros st;
    cbn [strip_r run_y run_r]; try reflexivity.
  - apply run_y_read; [exact Hio | exact Hlen | intros; apply IH].
  - destruct (rs_lim st) as [r|]; [|reflexivity]. destruct (lr_start_layer r layer); [apply IH | reflexivity].
  - destruct (rs_lim st) as [r|]; [reflexivity | apply IH].
Qed.

Lemma propr_embed p : propagating_r (embed_r p).
Proof.
  induction p as [a|c|e| | |n k IH|layer k IH|m ls off layer k IH]; cbn [embed_r]; try constructor; auto.
Qed.

(* the read-fault theorem for the fragment *)
Lemma propagating_read_fault p d c e lim : propagating_r p -> 1 <= c ->
  let r := run_y p (start_st d c e lim) in
  let k := src_pulled (rs_src (snd r)) in
  k <= len d /\
  (forall j, j < k ->
     let rj := run_y p (start_st (take j d) c e lim) in
     fst rj = QIo (io_kind e) /\ src_pulled (rs_src (snd rj)) = j) /\
  (forall j, k <= j ->
     let rj := run_y p (start_st (take j d) c e lim) in
     fst rj = fst r /\ src_pulled (rs_src (snd rj)) = k).
Proof.
  intros Hp Hc. cbn zeta. rewrite (run_y_strip p Hp).
  pose proof (read_fault_any (strip_r p) d c e lim Hc) as H. cbn zeta in H.
  destruct H as (H1 & _ & H3 & H4). split; [exact H1|]. split.
  - intros j Hj. rewrite (run_y_strip p Hp). destruct (H3 j Hj) as (A & B & _). split; assumption.
  - intros j Hj. rewrite (run_y_strip p Hp). destruct (H4 j Hj) as (A & B & _). split; assumption.
Qed.

(* IpHeaders::read swallowing an I/O error: the error of the second read_exact
   (the rest of the IPv4 header) is dropped *)
Definition swallowing_ip_headers_read : yprog :=
  YReadThen 1 (yq (fun _ => YReadThen 19 (fun _ => YRet [20]))).

Lemma swallow_read_refuted :
  ~ propagating_r swallowing_ip_headers_read /\
  (let r := run_y swallowing_ip_headers_read (start_st (repeat 69 20) 3 false None) in
   fst r = QOk [20] /\ src_pulled (rs_src (snd r)) = 20) /\
  (let r := run_y swallowing_ip_headers_read (start_st (take 5 (repeat 69 20)) 3 false None) in
   fst r = QOk [20] /\ src_pulled (rs_src (snd r)) = 5).
Proof.
  split; [|split; split; vm_compute; reflexivity].
  intros H. inversion H as [ | | | | |n k Hio Hlen Hk| | ]; subst.
  specialize (Hk []). cbn [yq] in Hk.
  inversion Hk as [ | | | | |n' k' Hio' Hlen' Hk'| | ]; subst.
  specialize (Hio' KEof). discriminate Hio'.
Qed.
