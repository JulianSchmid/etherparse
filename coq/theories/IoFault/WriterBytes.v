(* IoFault/WriterBytes.v -- property C16: the two-part writers write the C08
   encoding of the header.

   In IoFault/Model.v the bytes of each `write_all` call are parameters
   (`two_part`), so "the complete encoding" of C16_write_fault is whatever the
   harness passes in.  Here the parts are instantiated with the byte-level model
   of property C08 (Roundtrip/*.v) and the concatenation of
   the program's writes is proved to be the C08 `to_bytes` of the header, for
   every well-formed header value:

     Ipv4Header::write_raw    fixed 20 bytes (stored checksum) ; options slice
     IpAuthHeader::write      12 fixed bytes ; raw_icv()
     Ipv6RawExtHeader::write  [next_header, header_length] ; payload()
     TcpHeader::write         20 fixed bytes ; options (second call only if non-empty)

   (`write` and `to_bytes` are two separately coded serialisers in the crate;
   their agreement on the byte level is C08's theorem `*_ser_agree`, used here.) *)
From EP Require Import Base.Bytes IoFault.Spec IoFault.Model IoFault.Proofs.
From EP Require Roundtrip.Common Roundtrip.CommonProofs
  Roundtrip.Tcp Roundtrip.TcpProofs Roundtrip.Ipv4 Roundtrip.Ipv4Proofs
  Roundtrip.Auth Roundtrip.AuthProofs Roundtrip.RawExt Roundtrip.RawExtProofs.
Local Open Scope N_scope.

Module T := EP.Roundtrip.Tcp.
Module TP := EP.Roundtrip.TcpProofs.
Module I4 := EP.Roundtrip.Ipv4.
Module I4P := EP.Roundtrip.Ipv4Proofs.
Module AH := EP.Roundtrip.Auth.
Module AHP := EP.Roundtrip.AuthProofs.
Module RX := EP.Roundtrip.RawExt.
Module RXP := EP.Roundtrip.RawExtProofs.

Lemma tcp_write_bytes (h : T.TcpHeader) : T.wf_tcp h = true ->
  exists o e,
    T.opt_as_slice (T.options h) = Some o /\ T.to_bytes h = Some e /\
    len (T.fixed_bytes h) = 20 /\
    wprog_bytes (tcp_header_write (mk_two (T.fixed_bytes h) o)) = e /\
    wprog_verdict (tcp_header_write (mk_two (T.fixed_bytes h) o)) = VOk /\
    (forall out, T.write out h = Some (out ++ e)).
Proof.
  intros W. eexists. eexists.
  split; [apply TP.as_slice_wf; exact W|]. split; [apply TP.to_bytes_wf; exact W|].
  split; [apply TP.len_fixed|].
  destruct (two_part_writers (mk_two (T.fixed_bytes h) (take (T.o_len (T.options h)) (T.o_buf (T.options h)))))
    as (_ & _ & _ & (D & V) & _).
  split; [exact D|]. split; [exact V|].
  intros out. destruct (TP.tcp_ser_agree h out W) as (e & E1 & E2 & _).
    rewrite (TP.to_bytes_wf h W) in E1. apply Roundtrip.CommonProofs.Some_inj in E1. subst e. exact E2.
Qed.

Lemma ipv4_write_bytes (h : I4.Ipv4Header) : I4.wf_ip4 h = true ->
  exists f o e,
    I4.ip4_fixed h (I4.i4_header_checksum h) = Some f /\
    I4.i4o_as_slice (I4.i4_options h) = Some o /\ I4.ip4_to_bytes h = Some e /\
    len f = 20 /\
    wprog_bytes (ipv4_header_write (mk_two f o)) = e /\
    (forall out, I4.ip4_write_raw out h = Some (out ++ e)).
Proof.
  intros W. destruct (I4P.ip4_to_bytes_wf h W) as (f & EF & ET).
  destruct (I4P.wf_ip4_facts h W) as (_ & _ & _ & WO).
  destruct (I4P.fixed_wf h (I4.i4_header_checksum h) W) as (f' & EF' & LF & _).
  rewrite EF in EF'. apply Roundtrip.CommonProofs.Some_inj in EF'. subst f'.
  exists f. eexists. eexists. split; [exact EF|]. split; [apply I4P.i4o_as_slice_wf; exact WO|].
  split; [exact ET|]. split; [exact LF|].
  destruct (two_part_writers (mk_two f (take (I4.i4o_len (I4.i4_options h)) (I4.i4o_buf (I4.i4_options h)))))
    as ((A & _) & _).
  split; [exact A|].
  intros out. unfold I4.ip4_write_raw, I4.ip4_write_internal. rewrite EF, (I4P.i4o_as_slice_wf _ WO). reflexivity.
Qed.

Lemma auth_write_bytes (h : AH.IpAuthHeader) : AH.wf_ah h = true ->
  exists f icv e,
    AH.ah_fixed h = Some f /\ AH.ah_raw_icv h = Some icv /\ AH.ah_to_bytes h = Some e /\
    len f = 12 /\
    wprog_bytes (ip_auth_header_write (mk_two f icv)) = e /\
    (forall out, AH.ah_write out h = Some (out ++ e)).
Proof.
  intros W. exists (AHP.ah_fix h), (AHP.ah_icv h), (AHP.ah_fix h ++ AHP.ah_icv h).
  split; [apply AHP.ah_fixed_wf; exact W|]. split; [apply AHP.ah_raw_icv_wf; exact W|].
  split; [apply AHP.ah_to_bytes_wf; exact W|]. split; [apply AHP.len_ah_fix|].
  destruct (two_part_writers (mk_two (AHP.ah_fix h) (AHP.ah_icv h))) as (_ & (B & _) & _). split; [exact B|].
  intros out. unfold AH.ah_write. rewrite (AHP.ah_fixed_wf h W), (AHP.ah_raw_icv_wf h W). reflexivity.
Qed.

Lemma raw_ext_write_bytes (h : RX.Ipv6RawExtHeader) : RX.wf_rx h = true ->
  exists p e,
    RX.rx_payload h = Some p /\ RX.rx_to_bytes h = Some e /\
    wprog_bytes (ipv6_raw_ext_header_write (mk_two [RX.rx_next_header h; RX.rx_header_length h] p)) = e /\
    (forall out, RX.rx_write out h = Some (out ++ e)).
Proof.
  intros W. exists (RXP.rx_pl h), (RXP.rx_enc h).
  split; [apply RXP.rx_payload_wf; exact W|]. split; [apply RXP.rx_to_bytes_wf; exact W|].
  destruct (two_part_writers (mk_two [RX.rx_next_header h; RX.rx_header_length h] (RXP.rx_pl h)))
    as (_ & _ & (C & _) & _).
  split; [exact C|].
  intros out. unfold RX.rx_write. rewrite (RXP.rx_payload_wf h W). reflexivity.
Qed.
