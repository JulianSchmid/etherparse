(* IoFault/Spec.v -- property C16: the faulting devices and what the property
   demands of an operation running against them.  Independent of the crate:
   nothing here mentions a header type.

   Devices (exactly the instrumented std::io::Write / std::io::Read
   implementations of harness/src/bin/c16.rs):

   * fsink   : a writer that accepts `fs_budget` more bytes in total, at most
               `fs_chunk` per call to `write` (short counts), and afterwards
               either returns an error (kind Other) or the count 0.
   * fsource : a reader that delivers the bytes `src_data` (the first k bytes of
               the input), at most `src_chunk` per call to `read`, and afterwards
               either returns an error (kind Other) or the count 0 (end of file).
               Both are fail-stop: once the end is reached nothing more is
               accepted / delivered.
   * a slice of n bytes is simply a `bytes` of length n (bytes outside the slice
     do not exist in the model; the harness checks the canaries of the real one).

   Requirements (the oracle of the correspondence run):

   * spec_fault_write enc k : an operation whose complete encoding is `enc`
     run against a sink failing at byte k must report Ok iff len enc <= k and
     the sink must have received exactly `take k enc` (a prefix of enc).
   * spec_slice_write enc buf : Ok iff len enc <= len buf; on Ok the buffer is
     enc followed by the untouched rest; on Err the required length reported is
     len enc, the reported length is len buf and the buffer is unchanged.
   * spec_read_exact s n : read_exact(n) on a source that ends after its data
     delivers the next n bytes if it has them, and otherwise drains the source
     and reports its kind of end (Other or UnexpectedEof).
   Real OS error kinds are NOT modelled: only the three kinds the instrumented
   devices can produce (Other, WriteZero, UnexpectedEof). *)
From EP Require Import Base.Bytes.
Local Open Scope N_scope.

Inductive iokind := KOther | KWriteZero | KEof.

(* ---------------------------------------------------------------- fsink *)
Record fsink := mk_fsink {
  fs_budget : N;        (* bytes still accepted *)
  fs_chunk : N;         (* at most this many bytes per write call *)
  fs_zero : bool;       (* exhausted: true = return Ok(0), false = return Err(Other) *)
  fs_got : bytes        (* everything received so far *)
}.

Inductive wret := WOk (n : N) | WErr.

(* one call of <fsink as std::io::Write>::write(buf) *)
Definition fs_write (s : fsink) (buf : bytes) : wret * fsink :=
  if fs_budget s =? 0 then ((if fs_zero s then WOk 0 else WErr), s)
  else
    let n := N.min (N.min (fs_budget s) (fs_chunk s)) (len buf) in
    (WOk n, mk_fsink (fs_budget s - n) (fs_chunk s) (fs_zero s) (fs_got s ++ take n buf)).

Definition fs_kind (s : fsink) : iokind := if fs_zero s then KWriteZero else KOther.

(* what write_all must do on such a sink (closed form) *)
Definition spec_write_all (s : fsink) (buf : bytes) : option iokind * fsink :=
  if len buf <=? fs_budget s
  then (None, mk_fsink (fs_budget s - len buf) (fs_chunk s) (fs_zero s) (fs_got s ++ buf))
  else (Some (fs_kind s), mk_fsink 0 (fs_chunk s) (fs_zero s) (fs_got s ++ take (fs_budget s) buf)).

(* the property's demand on a whole operation with complete encoding enc *)
Definition spec_fault_write (enc : bytes) (k : N) : bool * bytes :=
  (len enc <=? k, take k enc).

Definition is_prefix (a b : bytes) : Prop := exists r, b = a ++ r.

(* ---------------------------------------------------------------- slices *)
Record space_req := mk_space { sp_required : N; sp_len : N }.

Definition spec_slice_write (enc buf : bytes) : (option space_req) * bytes :=
  if len enc <=? len buf then (None, enc ++ drop (len enc) buf)
  else (Some (mk_space (len enc) (len buf)), buf).

(* ---------------------------------------------------------------- fsource *)
Record fsource := mk_fsource {
  src_data : bytes;     (* bytes that will still be delivered *)
  src_chunk : N;        (* at most this many bytes per read call *)
  src_err : bool;       (* exhausted: true = Err(Other), false = Ok(0) i.e. EOF *)
  src_pulled : N        (* bytes delivered so far *)
}.

Inductive rret := RdOk (bs : bytes) | RdErr.

(* one call of <fsource as std::io::Read>::read(buf) with buf.len() = n *)
Definition src_read (s : fsource) (n : N) : rret * fsource :=
  match src_data s with
  | [] => ((if src_err s then RdErr else RdOk []), s)
  | _ =>
    let m := N.min (N.min (len (src_data s)) (src_chunk s)) n in
    (RdOk (take m (src_data s)),
     mk_fsource (drop m (src_data s)) (src_chunk s) (src_err s) (src_pulled s + m))
  end.

Definition src_kind (s : fsource) : iokind := if src_err s then KOther else KEof.

(* what read_exact(n) must do on such a source (closed form) *)
Definition spec_read_exact (s : fsource) (n : N) : (bytes + iokind) * fsource :=
  if n <=? len (src_data s)
  then (inl (take n (src_data s)),
        mk_fsource (drop n (src_data s)) (src_chunk s) (src_err s) (src_pulled s + n))
  else (inr (src_kind s),
        mk_fsource [] (src_chunk s) (src_err s) (src_pulled s + len (src_data s))).
