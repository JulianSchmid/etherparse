(* IoFault/SpaceLen.v -- property C16: the two hypotheses of the "space errors
   state the length really required" clause hold of the crate's values.

   C16_slice_space has the hypothesis `len enc = LEN` (LEN, layer and the encoding
   are parameters of IoFault/Model.v `header_write_to_slice`), C16_builder_space
   the hypothesis `bcfg_wf c` (every part's declared length = length of its bytes).

   (i)  Ethernet2Header / LinuxSllHeader: the encoders of C08 (Roundtrip/Eth.v
        `eth_to_bytes`, Roundtrip/Sll.v `sll_to_bytes`) give 14 / 16
        bytes for every header value whose address arrays have their type's
        length ([u8;6], [u8;6] / [u8;8]) - no range or consistency condition is
        needed, `wf_eth` / `wf_sll` imply it.  So write_to_slice of the two
        headers, in the C16 model with LEN = 14 / 16 and the C08 encoding, answers
        Ok iff the slice has LEN bytes and its error names LEN = the true length;
        and the C08 model of the same Rust function (`eth_write_to_slice`,
        `sll_write_to_slice`: no error value, no untouched-slice clause) agrees.
   (ii) builder: for EVERY builder configuration `c` (Builder/Model.v), endianness
        and payload, the C16 configuration `bcfg_of e c payload` of
        Builder/ProofsSinks.v satisfies bcfg_wf (`bcfg_of_wf`), so all conjuncts of
        C16_builder_space hold without hypothesis; for a well-formed configuration
        (`cfg_wf`, the type invariants of the crate's structs) the reserved size is
        Builder's `final_size` and the program writes `build_run`'s bytes with its
        verdict (`size_bridge`, `bridge`).
   Only compositions of the C08, Builder and C16 models. *)
From EP Require Import Base.Bytes IoFault.Spec IoFault.Model IoFault.Proofs.
From EP Require Roundtrip.Common Roundtrip.Eth Roundtrip.EthProofs Roundtrip.Sll Roundtrip.SllProofs.
From EP Require Checksum.Model ExtChain.Model Roundtrip.Ipv4
  Builder.Model Builder.Spec Builder.ProofsSinks.
Local Open Scope N_scope.

Module RC := EP.Roundtrip.Common.
Module ETH := EP.Roundtrip.Eth.
Module ETHP := EP.Roundtrip.EthProofs.
Module SLL := EP.Roundtrip.Sll.
Module SLLP := EP.Roundtrip.SllProofs.
Module BM := EP.Builder.Model.
Module BSP := EP.Builder.Spec.
Module BK := EP.Builder.ProofsSinks.

Lemma len_u16_to_be v : len (RC.u16_to_be v) = 2.
Proof. reflexivity. Qed.

(* the array types alone *)
Definition eth_arrays (h : ETH.Ethernet2Header) : Prop :=
  len (ETH.eth_source h) = 6 /\ len (ETH.eth_destination h) = 6.
Definition sll_arrays (h : SLL.LinuxSllHeader) : Prop := len (SLL.sll_sender_address h) = 8.

Lemma eth_len_14 h : eth_arrays h -> len (ETH.eth_to_bytes h) = 14.
Proof.
  intros [Hs Hd]. unfold ETH.eth_to_bytes. rewrite !len_app, Hs, Hd, len_u16_to_be. reflexivity.
Qed.

Lemma sll_len_16 h : sll_arrays h -> len (SLL.sll_to_bytes h) = 16.
Proof.
  intros Hs. unfold sll_arrays in Hs. unfold SLL.sll_to_bytes. rewrite !len_app, Hs, !len_u16_to_be. reflexivity.
Qed.

Lemma wf_eth_arrays h : ETH.wf_eth h = true -> eth_arrays h.
Proof. intros W. destruct (ETHP.eth_wf_facts h W) as (A & _ & B & _). split; assumption. Qed.

Lemma wf_sll_arrays h : SLL.wf_sll h = true -> sll_arrays h.
Proof.
  intros W. unfold sll_arrays. pose proof (SLLP.len_sll_to_bytes h W) as L.
  unfold SLL.sll_to_bytes in L. rewrite !len_app, !len_u16_to_be in L. lia.
Qed.

(* header_write_to_slice on an encoding of LEN bytes, beside a function of the shape
   C08 gives the same Rust function (length check, copy_from_slice panic, Ok) *)
Lemma write_to_slice_space LEN layer enc slice : len enc = LEN ->
  let w08 := if len slice <? LEN then RC.Err RC.ELen
             else if negb (len enc =? LEN) then RC.Err RC.EPanic
             else RC.Ok (enc ++ drop LEN slice, drop LEN slice) in
  len enc = LEN /\
  (len slice < LEN ->
     header_write_to_slice LEN layer enc slice = (SErr (mk_slice_err LEN (len slice) layer 0), slice)) /\
  (LEN <= len slice ->
     header_write_to_slice LEN layer enc slice = (SOk LEN (len slice - LEN), enc ++ drop LEN slice)) /\
  snd (header_write_to_slice LEN layer enc slice) = snd (spec_slice_write enc slice) /\
  (fst (spec_slice_write enc slice) = None <-> LEN <= len slice) /\
  (len slice < LEN -> w08 = RC.Err RC.ELen) /\
  (LEN <= len slice -> w08 = RC.Ok (snd (header_write_to_slice LEN layer enc slice), drop LEN slice)).
Proof.
  intros L w08. destruct (header_write_to_slice_spec LEN layer enc slice L) as (S1 & S2 & S3 & S4).
  repeat (split; [assumption|]). unfold w08. rewrite L, N.eqb_refl. split; intros H.
  - apply N.ltb_lt in H. now rewrite H.
  - rewrite (S2 H). apply N.ltb_ge in H. now rewrite H.
Qed.

Lemma eth_write_to_slice_space h slice : eth_arrays h ->
  let enc := ETH.eth_to_bytes h in
  len enc = 14 /\
  (len slice < 14 ->
     header_write_to_slice 14 L_ETH enc slice = (SErr (mk_slice_err 14 (len slice) L_ETH 0), slice)) /\
  (14 <= len slice ->
     header_write_to_slice 14 L_ETH enc slice = (SOk 14 (len slice - 14), enc ++ drop 14 slice)) /\
  snd (header_write_to_slice 14 L_ETH enc slice) = snd (spec_slice_write enc slice) /\
  (fst (spec_slice_write enc slice) = None <-> 14 <= len slice) /\
  (* the C08 model of the same function *)
  (len slice < 14 -> ETH.eth_write_to_slice slice h = RC.Err RC.ELen) /\
  (14 <= len slice ->
     ETH.eth_write_to_slice slice h = RC.Ok (snd (header_write_to_slice 14 L_ETH enc slice), drop 14 slice)).
Proof. intros Ha. exact (write_to_slice_space 14 L_ETH _ slice (eth_len_14 h Ha)). Qed.

Lemma sll_write_to_slice_space h slice : sll_arrays h ->
  let enc := SLL.sll_to_bytes h in
  len enc = 16 /\
  (len slice < 16 ->
     header_write_to_slice 16 L_SLL enc slice = (SErr (mk_slice_err 16 (len slice) L_SLL 0), slice)) /\
  (16 <= len slice ->
     header_write_to_slice 16 L_SLL enc slice = (SOk 16 (len slice - 16), enc ++ drop 16 slice)) /\
  snd (header_write_to_slice 16 L_SLL enc slice) = snd (spec_slice_write enc slice) /\
  (fst (spec_slice_write enc slice) = None <-> 16 <= len slice) /\
  (len slice < 16 -> SLL.sll_write_to_slice slice h = RC.Err RC.ELen) /\
  (16 <= len slice ->
     SLL.sll_write_to_slice slice h = RC.Ok (snd (header_write_to_slice 16 L_SLL enc slice), drop 16 slice)).
Proof. intros Ha. exact (write_to_slice_space 16 L_SLL _ slice (sll_len_16 h Ha)). Qed.

(* without `len enc = LEN`: an address array of the wrong length is the
   copy_from_slice panic of the model, not a space error *)
Lemma slice_len_hyp_needed :
  header_write_to_slice 14 L_ETH (repeat 1 13) (repeat 255 20) = (SPanic, repeat 255 20).
Proof. vm_compute. reflexivity. Qed.

Lemma builder_space_cfg (e : EP.Checksum.Model.endian) (c : BM.cfg) (payload buffer : bytes) :
  let b := BK.bcfg_of e c payload in
  let required := final_size b (len payload) in
  let p := final_write_with_net b payload in
  bcfg_wf b /\
  (len buffer < required -> final_write_to_slice b buffer payload = (BSpace required, buffer)) /\
  (required <= len buffer ->
     final_write_to_slice b buffer payload =
       (bres_of required (wprog_verdict p), wprog_bytes p ++ drop (len (wprog_bytes p)) buffer)) /\
  (wprog_verdict p = VOk -> len (wprog_bytes p) = required) /\
  len (wprog_bytes p) <= required /\
  verdict_ok (wprog_verdict p) /\
  (BSP.cfg_wf c = true ->
     required = BM.final_size c (len payload) /\
     wprog_bytes p = snd (BM.build_run e c payload) /\
     wprog_verdict p = BK.verdict_of (fst (BM.build_run e c payload))).
Proof.
  intros b required p. pose proof (BK.bcfg_of_wf e c payload) as W. fold b in W.
  destruct (final_write_to_slice_spec b buffer payload W) as (S1 & S2 & S3 & S4 & S5).
  split; [exact W|]. split; [exact S1|]. split; [exact S2|]. split; [exact S3|].
  split; [exact S4|]. split; [exact S5|].
  intros Hc. split; [apply (BK.size_bridge e c payload (len payload) Hc)|].
  exact (BK.bridge e c payload Hc).
Qed.

(* non-vacuity: the crate's documentation example (ethernet2 / ipv4 / udp, 8 byte payload) *)
Definition ex_b_ip4 : EP.Roundtrip.Ipv4.Ipv4Header :=
  EP.Roundtrip.Ipv4.Build_Ipv4Header 0 0 0 0 true false 0 20 255 0 [192; 168; 1; 1] [192; 168; 1; 2]
    (EP.Roundtrip.Ipv4.Build_Ipv4Options 0 (repeat 0 40)).
Definition ex_b_cfg : BM.cfg :=
  BM.mkCfg (BM.LkEthernet2 [1; 2; 3; 4; 5; 6] [7; 8; 9; 10; 11; 12]) BM.VlNone
           (BM.NtIpv4 ex_b_ip4 (EP.ExtChain.Model.mkExts4 None)) (BM.TrUdp 21 1234).
Definition ex_b_payload : bytes := [1; 2; 3; 4; 5; 6; 7; 8].
