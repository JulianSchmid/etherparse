(* IoFault/SliceFrame.v -- property C16: "never writes outside the given slice".

   In Model.v a slice of n bytes is a `bytes` of length n and a function that
   writes into it returns the new contents.  Bytes outside do not exist there.
   Here the slice is a window [off, off+n) of a flat memory `mem`; the contents a
   function returns are laid down starting at `off` (`place`): a model function
   whose result were LONGER than the window would overwrite what follows it, a
   shorter one would shift it - both are expressible, and excluded by the
   theorems below for

     * Ethernet2Header / LinuxSllHeader ::write_to_slice   (header_write_to_slice)
     * SliceCoreWrite::write_all, and every write program / every explicit
       program of IoFault/Propagate.v run over it (also one that swallows errors)
     * the builder's final_write_to_slice

   on every outcome: success, space error, content error, and the modelled
   panics.  No hypothesis on LEN, the encodings or the configuration is needed.
   What makes this true in the Rust code are the bounds checks of safe slice
   indexing (`slice[..LEN]`, `get_mut(pos..)`, `get_mut(..len)`,
   `copy_from_slice`'s length check); the model transliterates exactly those
   checks (SPanic / the RIo branches of sw_write_all).  None of the three
   functions contains `unsafe`.  The canary bytes of the harness remain the only
   tie to the compiled code. *)
From EP Require Import Base.Bytes Base.Lists IoFault.Spec IoFault.Model IoFault.Proofs IoFault.Propagate.
Local Open Scope N_scope.

(* lay `w` down in memory starting at `off` *)
Definition place (mem : bytes) (off : N) (w : bytes) : bytes :=
  take off mem ++ w ++ drop (off + len w) mem.

(* the window *)
Definition window (mem : bytes) (off n : N) : bytes := take n (drop off mem).

Lemma len_window mem off n : off + n <= len mem -> len (window mem off n) = n.
Proof. intros H. unfold window. rewrite len_take, len_drop. lia. Qed.

Definition untouched_outside (mem mem' : bytes) (off n : N) : Prop :=
  len mem' = len mem /\ take off mem' = take off mem /\ drop (off + n) mem' = drop (off + n) mem.

(* placing contents of exactly the window's length touches nothing else *)
Lemma place_frame mem off n w : off + n <= len mem -> len w = n ->
  untouched_outside mem (place mem off w) off n /\ window (place mem off w) off n = w.
Proof.
  intros Hb Hw. unfold untouched_outside, place. rewrite Hw.
  assert (Lt : len (take off mem) = off) by (rewrite len_take; lia).
  split; [split; [|split]|].
  - rewrite !len_app, Lt, Hw, len_drop. lia.
  - rewrite take_app_l by lia. apply take_all. lia.
  - rewrite app_assoc. rewrite drop_app_r by (rewrite len_app; lia).
    rewrite len_app, Lt, Hw. replace (off + n - (off + n)) with 0 by lia. apply drop_0.
  - unfold window. rewrite drop_app_r by lia. rewrite Lt. replace (off - off) with 0 by lia.
    rewrite drop_0. rewrite take_app_l by lia. apply take_all. lia.
Qed.

(* putting the unchanged window back changes nothing *)
Lemma place_same mem off n : off + n <= len mem -> place mem off (window mem off n) = mem.
Proof.
  intros H. unfold place. rewrite len_window by exact H. unfold window.
  rewrite <- (take_drop off mem) at 4. f_equal.
  rewrite <- (take_drop n (drop off mem)) at 2. f_equal. now rewrite drop_drop.
Qed.

Lemma header_write_to_slice_len LEN layer enc slice :
  len (snd (header_write_to_slice LEN layer enc slice)) = len slice.
Proof.
  unfold header_write_to_slice. destruct (len slice <? LEN) eqn:E1; [reflexivity|].
  apply N.ltb_ge in E1. destruct (len enc =? LEN) eqn:E2; [|reflexivity].
  apply N.eqb_eq in E2. cbn [snd]. rewrite len_app, len_drop. lia.
Qed.

Lemma sw_write_all_len s b : len (sw_buf (snd (sw_write_all s b))) = len (sw_buf s).
Proof.
  unfold sw_write_all. destruct (len (sw_buf s) <? sw_pos s) eqn:E1; [reflexivity|].
  apply N.ltb_ge in E1. destruct (len (sw_buf s) - sw_pos s <? len b) eqn:E2; [reflexivity|].
  apply N.ltb_ge in E2. cbn [snd sw_buf]. rewrite !len_app, len_take, len_drop. lia.
Qed.

Lemma run_x_slice_len (p : xprog space_req) : forall w,
  len (sw_buf (snd (run_x sw_write_all p w))) = len (sw_buf w).
Proof.
  induction p as [v|e|b k IH]; intros w; cbn [run_x]; try reflexivity.
  pose proof (sw_write_all_len w b) as H. destruct (sw_write_all w b) as [[ |e|c| | ] w']; cbn [snd] in *;
    try exact H; rewrite IH; exact H.
Qed.

Lemma run_w_slice_len p w : len (sw_buf (snd (run_w sw_write_all p w))) = len (sw_buf w).
Proof. rewrite <- (run_x_embed sw_write_all p w). apply run_x_slice_len. Qed.

Lemma final_write_to_slice_len c buffer payload :
  len (snd (final_write_to_slice c buffer payload)) = len buffer.
Proof.
  unfold final_write_to_slice. set (required := final_size c (len payload)).
  destruct (len buffer <? required) eqn:E; [reflexivity|]. apply N.ltb_ge in E.
  pose proof (run_w_slice_len (final_write_with_net c payload) (mk_slicew (take required buffer) 0)) as H.
  cbn [sw_buf] in H. rewrite len_take in H.
  destruct (run_w sw_write_all (final_write_with_net c payload) (mk_slicew (take required buffer) 0))
    as [[ |e|ce| | ] w]; cbn [snd] in *; rewrite len_app, H, len_drop; lia.
Qed.

Lemma slice_frame mem off n : off + n <= len mem ->
  let win := window mem off n in
  (* Ethernet2Header / LinuxSllHeader ::write_to_slice *)
  (forall LEN layer enc,
     let r := header_write_to_slice LEN layer enc win in
     untouched_outside mem (place mem off (snd r)) off n /\
     window (place mem off (snd r)) off n = snd r /\
     (match fst r with SOk _ _ => True | _ => place mem off (snd r) = mem end)) /\
  (* every write program / explicit program over a SliceCoreWrite on the window *)
  (forall p pos,
     let r := run_w sw_write_all p (mk_slicew win pos) in
     untouched_outside mem (place mem off (sw_buf (snd r))) off n) /\
  (forall (p : xprog space_req) pos,
     let r := run_x sw_write_all p (mk_slicew win pos) in
     untouched_outside mem (place mem off (sw_buf (snd r))) off n) /\
  (* the builder's write_to_slice *)
  (forall c payload,
     let r := final_write_to_slice c win payload in
     untouched_outside mem (place mem off (snd r)) off n /\
     window (place mem off (snd r)) off n = snd r /\
     (n < final_size c (len payload) -> fst r = BSpace (final_size c (len payload)) /\ place mem off (snd r) = mem)).
Proof.
  intros Hb win. assert (Lw : len win = n) by (apply len_window; exact Hb).
  split; [|split; [|split]].
  - intros LEN layer enc r.
    destruct (place_frame mem off n (snd r) Hb) as [P1 P2];
      [unfold r; now rewrite header_write_to_slice_len|].
    split; [exact P1|]. split; [exact P2|].
    unfold r, header_write_to_slice. destruct (len win <? LEN); cbn [fst snd].
    + apply place_same. exact Hb.
    + destruct (len enc =? LEN); cbn [fst snd]; [exact I | apply place_same; exact Hb].
  - intros p pos r. apply place_frame; [exact Hb | unfold r; now rewrite run_w_slice_len].
  - intros p pos r. apply place_frame; [exact Hb | unfold r; now rewrite run_x_slice_len].
  - intros c payload r.
    destruct (place_frame mem off n (snd r) Hb) as [P1 P2];
      [unfold r; now rewrite final_write_to_slice_len|].
    split; [exact P1|]. split; [exact P2|].
    intros Hn. unfold r, final_write_to_slice. rewrite Lw. apply N.ltb_lt in Hn. rewrite Hn.
    split; [reflexivity | apply place_same; exact Hb].
Qed.

(* what would be a violation is expressible: contents one byte longer than the
   window overwrite the byte behind it *)
Lemma place_overrun_visible :
  let mem := [9; 9; 1; 2; 3; 7; 7] in
  window mem 2 3 = [1; 2; 3] /\
  place mem 2 [4; 5; 6] = [9; 9; 4; 5; 6; 7; 7] /\
  place mem 2 [4; 5; 6; 0] = [9; 9; 4; 5; 6; 0; 7] /\
  ~ untouched_outside mem (place mem 2 [4; 5; 6; 0]) 2 3.
Proof.
  cbn zeta. repeat split; try (vm_compute; reflexivity).
  intros (_ & _ & H). vm_compute in H. discriminate H.
Qed.
