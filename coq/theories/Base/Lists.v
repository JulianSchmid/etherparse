(* Base/Lists.v -- facts about the vocabulary of Base/Bytes.v that every
   directory needs: take and drop with N indices, len, rd, the big-endian
   readers against their serialisers, and `|` of disjoint bit ranges as a sum. *)
From EP Require Import Base.Bytes.
From Coq Require Import ZArith.
Local Open Scope N_scope.

(* linear arithmetic with division and remainder by a constant *)
Ltac dmlia := zify; Z.div_mod_to_equations; lia.

Lemma nth_error_firstn_lt {A} (l : list A) n i :
  (i < n)%nat -> nth_error (firstn n l) i = nth_error l i.
Proof.
  revert n i. induction l as [|x l IH]; intros n i H.
  - rewrite firstn_nil. reflexivity.
  - destruct n as [|n]; [lia|]. destruct i as [|i]; cbn; [reflexivity|]. apply IH. lia.
Qed.

Lemma nth_error_skipn {A} (l : list A) k i :
  nth_error (skipn k l) i = nth_error l (k + i).
Proof.
  revert l. induction k as [|k IH]; intros l; [reflexivity|].
  destruct l as [|x l]; cbn; [now destruct i|]. apply IH.
Qed.

Lemma firstn_plus {A} (a b : nat) (l : list A) :
  firstn (a + b) l = firstn a l ++ firstn b (skipn a l).
Proof.
  revert l. induction a as [|a IH]; intros l; cbn [plus firstn skipn app]; [reflexivity|].
  destruct l as [|x l]; cbn [firstn skipn app].
  - now rewrite firstn_nil.
  - now rewrite IH.
Qed.

Lemma len_length {A} (l : list A) : len l = N.of_nat (length l).
Proof. reflexivity. Qed.

Lemma len_map {A B} (f : A -> B) l : len (map f l) = len l.
Proof. unfold len. now rewrite map_length. Qed.

Lemma len_repeat {A} (x : A) k : len (repeat x k) = N.of_nat k.
Proof. unfold len. now rewrite repeat_length. Qed.

Lemma len_nonempty {A} (x : A) l : 1 <= len (x :: l).
Proof. rewrite len_cons. lia. Qed.

Lemma len_0_nil {A} (l : list A) : len l = 0 -> l = [].
Proof. destruct l; [reflexivity|]. rewrite len_cons. lia. Qed.

Lemma len_take_le {A} n (l : list A) : n <= len l -> len (take n l) = n.
Proof. intros H. rewrite len_take. lia. Qed.

Lemma take_0 {A} (l : list A) : take 0 l = [].
Proof. reflexivity. Qed.

Lemma drop_0 {A} (l : list A) : drop 0 l = l.
Proof. reflexivity. Qed.

Lemma take_nil {A} (n : N) : take n (@nil A) = [].
Proof. unfold take. apply firstn_nil. Qed.

Lemma take_all {A} (n : N) (l : list A) : len l <= n -> take n l = l.
Proof. unfold take, len. intros H. apply firstn_all2. lia. Qed.

Lemma take_len {A} (l : list A) : take (len l) l = l.
Proof. apply take_all, N.le_refl. Qed.

Lemma drop_all {A} (n : N) (l : list A) : len l <= n -> drop n l = [].
Proof. unfold drop, len. intros H. apply skipn_all2. lia. Qed.

Lemma take_add {A} (a b : N) (l : list A) : take (a + b) l = take a l ++ take b (drop a l).
Proof. unfold take, drop. rewrite N2Nat.inj_add. apply firstn_plus. Qed.

Lemma take_take {A} (a b : N) (l : list A) : a <= b -> take a (take b l) = take a l.
Proof. intros H. unfold take. rewrite firstn_firstn. f_equal. lia. Qed.

Lemma drop_drop {A} (a b : N) (l : list A) : drop a (drop b l) = drop (b + a) l.
Proof.
  unfold drop. rewrite N2Nat.inj_add. generalize (N.to_nat a) (N.to_nat b). clear.
  intros x y. revert l. induction y as [|y IH]; intros l; cbn [plus skipn]; [reflexivity|].
  destruct l as [|h l]; [now rewrite skipn_nil | apply IH].
Qed.

Lemma drop_take_sub {A} (a b : N) (l : list A) : drop a (take b l) = take (b - a) (drop a l).
Proof. unfold drop, take. rewrite skipn_firstn_comm. f_equal. lia. Qed.

Lemma take_app_l {A} (n : N) (a b : list A) : n <= len a -> take n (a ++ b) = take n a.
Proof.
  unfold take, len. intros H. rewrite firstn_app.
  replace (N.to_nat n - length a)%nat with 0%nat by lia. cbn [firstn]. now rewrite app_nil_r.
Qed.

Lemma drop_app_l {A} (n : N) (a b : list A) : n <= len a -> drop n (a ++ b) = drop n a ++ b.
Proof.
  unfold drop, len. intros H. rewrite skipn_app.
  replace (N.to_nat n - length a)%nat with 0%nat by lia. reflexivity.
Qed.

Lemma take_app_r {A} (n : N) (a b : list A) : len a <= n -> take n (a ++ b) = a ++ take (n - len a) b.
Proof.
  unfold take, len. intros H. rewrite firstn_app. rewrite firstn_all2 by lia.
  f_equal. f_equal. lia.
Qed.

Lemma drop_app_r {A} (n : N) (a b : list A) : len a <= n -> drop n (a ++ b) = drop (n - len a) b.
Proof.
  unfold drop, len. intros H. rewrite skipn_app. rewrite skipn_all2 by lia.
  cbn [app]. f_equal. lia.
Qed.

(* the cut falls on the seam; [n] is left free so that a numeral can be matched
   against a length still to be computed *)
Lemma take_app_len {A} (a b : list A) n : n = len a -> take n (a ++ b) = a.
Proof. intros ->. rewrite take_app_l by apply N.le_refl. apply take_len. Qed.

Lemma drop_app_len {A} (a b : list A) n : n = len a -> drop n (a ++ b) = b.
Proof. intros ->. rewrite drop_app_r by apply N.le_refl. now rewrite N.sub_diag. Qed.

Lemma take_app_exact {A} (a b : list A) : take (len a) (a ++ b) = a.
Proof. now apply take_app_len. Qed.

Lemma drop_app_exact {A} (a b : list A) : drop (len a) (a ++ b) = b.
Proof. now apply drop_app_len. Qed.

Lemma rd_take_lt (bs : bytes) n i : i < n -> rd (take n bs) i = rd bs i.
Proof. intros H. unfold rd, take. apply nth_error_firstn_lt. lia. Qed.

Lemma rd_drop k i (bs : bytes) : rd (drop k bs) i = rd bs (k + i).
Proof. unfold rd, drop. rewrite nth_error_skipn. f_equal. lia. Qed.

Lemma to_be16_be16 a b : a < 256 -> b < 256 -> to_be16 (be16 a b) = [a; b].
Proof.
  intros Ha Hb. unfold to_be16, be16.
  assert (E1 : (a * 256 + b) / 256 = a) by (symmetry; apply (N.div_unique _ 256 a b); lia).
  assert (E2 : (a * 256 + b) mod 256 = b) by (symmetry; apply (N.mod_unique _ 256 a b); lia).
  rewrite E1, E2. rewrite (N.mod_small a 256) by lia. reflexivity.
Qed.

Lemma be16_to_be16 v : v < 65536 -> be16 ((v / 256) mod 256) (v mod 256) = v.
Proof.
  intros Hv. unfold be16.
  assert (v / 256 < 256) by (apply N.div_lt_upper_bound; lia).
  rewrite (N.mod_small (v / 256)) by lia.
  pose proof (N.div_mod v 256). lia.
Qed.

Lemma to_be32_be32 a b c d : a < 256 -> b < 256 -> c < 256 -> d < 256 ->
  to_be32 (be32 a b c d) = [a; b; c; d].
Proof.
  intros Ha Hb Hc Hd. unfold to_be32, be32.
  set (v := ((a * 256 + b) * 256 + c) * 256 + d).
  assert (E0 : v mod 256 = d) by (symmetry; apply (N.mod_unique v 256 ((a * 256 + b) * 256 + c) d); subst v; lia).
  assert (Q1 : v / 256 = (a * 256 + b) * 256 + c) by (symmetry; apply (N.div_unique v 256 _ d); subst v; lia).
  assert (Q2 : v / 65536 = a * 256 + b).
  { change 65536 with (256 * 256). rewrite <- N.div_div by lia. rewrite Q1.
    symmetry; apply (N.div_unique _ 256 _ c); lia. }
  assert (Q3 : v / 16777216 = a).
  { change 16777216 with (65536 * 256). rewrite <- N.div_div by lia. rewrite Q2.
    symmetry; apply (N.div_unique _ 256 _ b); lia. }
  rewrite E0, Q1, Q2, Q3.
  rewrite (N.mod_small a 256) by lia.
  assert (E1 : ((a * 256 + b) * 256 + c) mod 256 = c) by (symmetry; apply (N.mod_unique _ 256 (a * 256 + b) c); lia).
  assert (E2 : (a * 256 + b) mod 256 = b) by (symmetry; apply (N.mod_unique _ 256 a b); lia).
  rewrite E1, E2. reflexivity.
Qed.

Lemma be32_to_be32 v : v < 4294967296 ->
  be32 ((v / 16777216) mod 256) ((v / 65536) mod 256) ((v / 256) mod 256) (v mod 256) = v.
Proof.
  intros Hv. unfold be32.
  set (q1 := v / 256).
  assert (E2 : v / 65536 = q1 / 256) by (change 65536 with (256 * 256); rewrite <- N.div_div by lia; reflexivity).
  assert (E3 : v / 16777216 = q1 / 256 / 256).
  { change 16777216 with (256 * 256 * 256). rewrite <- !N.div_div by lia. reflexivity. }
  rewrite E2, E3.
  set (q2 := q1 / 256). set (q3 := q2 / 256).
  pose proof (N.div_mod v 256 ltac:(lia)) as D1. fold q1 in D1.
  pose proof (N.div_mod q1 256 ltac:(lia)) as D2. fold q2 in D2.
  pose proof (N.div_mod q2 256 ltac:(lia)) as D3. fold q3 in D3.
  pose proof (N.mod_lt v 256 ltac:(lia)). pose proof (N.mod_lt q1 256 ltac:(lia)).
  pose proof (N.mod_lt q2 256 ltac:(lia)).
  assert (q3 < 256).
  { subst q3 q2 q1. rewrite !N.div_div by lia. apply N.div_lt_upper_bound; lia. }
  rewrite (N.mod_small q3) by lia. lia.
Qed.

Lemma land_disjoint hi lo k : lo < 2 ^ k -> N.land (hi * 2 ^ k) lo = 0.
Proof.
  intros H. apply N.bits_inj. intros i. rewrite N.land_spec, N.bits_0.
  destruct (N.lt_ge_cases i k) as [L|L].
  - rewrite N.mul_pow2_bits_low by exact L. reflexivity.
  - rewrite <- (N.mod_small lo (2 ^ k)) by exact H.
    rewrite N.mod_pow2_bits_high by exact L. apply andb_false_r.
Qed.

(* `|` of values that occupy disjoint bit ranges is their sum *)
Lemma lor_disjoint hi lo k : lo < 2 ^ k -> N.lor (hi * 2 ^ k) lo = hi * 2 ^ k + lo.
Proof.
  intros H. pose proof (land_disjoint hi lo k H) as D.
  rewrite <- N.lxor_lor by exact D. symmetry. apply N.add_nocarry_lxor. exact D.
Qed.
