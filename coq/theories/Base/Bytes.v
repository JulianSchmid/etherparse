(* Base/Bytes.v -- bytes as N < 256, byte strings as lists, big-endian readers.
   No proofs about the crate live here; only the vocabulary shared by every
   model and specification file. *)
From Coq Require Export List NArith Bool Lia Arith Wf_nat.
Export ListNotations.
Open Scope N_scope.

Arguments N.add : simpl never.
Arguments N.sub : simpl never.
Arguments N.mul : simpl never.
Arguments N.div : simpl never.
Arguments N.modulo : simpl never.
Arguments N.eqb : simpl never.
Arguments N.ltb : simpl never.
Arguments N.leb : simpl never.
Arguments N.pow : simpl never.
Arguments N.land : simpl never.
Arguments N.lor : simpl never.
Arguments N.shiftr : simpl never.
Arguments N.shiftl : simpl never.

Definition byte := N.
Definition bytes := list N.

Definition byte_ok (b : N) : Prop := b < 256.
Definition bytes_ok (bs : bytes) : Prop := Forall byte_ok bs.
Definition byte_okb (b : N) : bool := b <? 256.
Definition bytes_okb (bs : bytes) : bool := forallb byte_okb bs.

Lemma bytes_okb_spec bs : bytes_okb bs = true <-> bytes_ok bs.
Proof.
  unfold bytes_okb, bytes_ok. rewrite forallb_forall, Forall_forall.
  unfold byte_okb, byte_ok. split; intros H x Hx; specialize (H x Hx).
  - now apply N.ltb_lt.
  - now apply N.ltb_lt.
Qed.

Lemma bytes_ok_nil : bytes_ok [].
Proof. constructor. Qed.

Lemma bytes_ok_cons b bs : bytes_ok (b :: bs) <-> byte_ok b /\ bytes_ok bs.
Proof. unfold bytes_ok. split; [intros H; inversion H; auto | intros [H1 H2]; constructor; auto]. Qed.

Lemma bytes_ok_app a b : bytes_ok (a ++ b) <-> bytes_ok a /\ bytes_ok b.
Proof. unfold bytes_ok. apply Forall_app. Qed.

Lemma bytes_ok_firstn n bs : bytes_ok bs -> bytes_ok (firstn n bs).
Proof.
  unfold bytes_ok. rewrite !Forall_forall. intros H x Hx. apply H.
  rewrite <- (firstn_skipn n bs). apply in_or_app. now left.
Qed.

Lemma bytes_ok_skipn n bs : bytes_ok bs -> bytes_ok (skipn n bs).
Proof.
  unfold bytes_ok. rewrite !Forall_forall. intros H x Hx. apply H.
  rewrite <- (firstn_skipn n bs). apply in_or_app. now right.
Qed.

(* length as N: the model's usize *)
Definition len {A} (l : list A) : N := N.of_nat (length l).

Lemma len_nil {A} : len (@nil A) = 0.
Proof. reflexivity. Qed.

Lemma len_cons {A} (x : A) l : len (x :: l) = 1 + len l.
Proof. unfold len. cbn [length]. lia. Qed.

Lemma len_app {A} (a b : list A) : len (a ++ b) = len a + len b.
Proof. unfold len. rewrite app_length. lia. Qed.

(* sub-slices with N indices *)
Definition take {A} (n : N) (l : list A) : list A := firstn (N.to_nat n) l.
Definition drop {A} (n : N) (l : list A) : list A := skipn (N.to_nat n) l.

Lemma take_drop {A} n (l : list A) : take n l ++ drop n l = l.
Proof. apply firstn_skipn. Qed.

Lemma len_take {A} n (l : list A) : len (take n l) = N.min n (len l).
Proof. unfold len, take. rewrite firstn_length. lia. Qed.

Lemma len_drop {A} n (l : list A) : len (drop n l) = len l - n.
Proof. unfold len, drop. rewrite skipn_length. lia. Qed.

Lemma bytes_ok_take n bs : bytes_ok bs -> bytes_ok (take n bs).
Proof. apply bytes_ok_firstn. Qed.

Lemma bytes_ok_drop n bs : bytes_ok bs -> bytes_ok (drop n bs).
Proof. apply bytes_ok_skipn. Qed.

(* checked indexing: None = out of bounds (never defaulted) *)
Definition rd (bs : bytes) (i : N) : option N := nth_error bs (N.to_nat i).

Lemma rd_Some_lt bs i v : rd bs i = Some v -> i < len bs.
Proof.
  unfold rd, len. intros H.
  assert (N.to_nat i < length bs)%nat by (apply nth_error_Some; congruence). lia.
Qed.

Lemma rd_lt_Some bs i : i < len bs -> exists v, rd bs i = Some v.
Proof.
  unfold rd, len. intros H.
  destruct (nth_error bs (N.to_nat i)) eqn:E; eauto.
  apply nth_error_None in E. lia.
Qed.

Lemma rd_ok bs i v : bytes_ok bs -> rd bs i = Some v -> v < 256.
Proof.
  unfold rd, bytes_ok. rewrite Forall_forall. intros H E.
  apply H. eapply nth_error_In; eauto.
Qed.

(* big endian values *)
Definition be16 (a b : N) : N := a * 256 + b.
Definition be32 (a b c d : N) : N := ((a * 256 + b) * 256 + c) * 256 + d.

Fixpoint be_val (bs : bytes) : N :=
  match bs with
  | [] => 0
  | b :: r => b * 256 ^ (len r) + be_val r
  end.

(* big-endian serialisation of the low k bytes of v *)
Definition to_be16 (v : N) : bytes := [(v / 256) mod 256; v mod 256].
Definition to_be32 (v : N) : bytes :=
  [(v / 16777216) mod 256; (v / 65536) mod 256; (v / 256) mod 256; v mod 256].

Lemma be16_lt a b : a < 256 -> b < 256 -> be16 a b < 65536.
Proof. unfold be16. lia. Qed.

Lemma be32_lt a b c d : a < 256 -> b < 256 -> c < 256 -> d < 256 -> be32 a b c d < 4294967296.
Proof. unfold be32. lia. Qed.

Lemma list_len_ind {A} (P : list A -> Prop) :
  (forall l, (forall l', (length l' < length l)%nat -> P l') -> P l) -> forall l, P l.
Proof.
  intros H l. remember (length l) as n eqn:E. revert l E.
  induction n as [n IH] using lt_wf_ind. intros l E. apply H.
  intros l' Hl. eapply IH; [|reflexivity]. lia.
Qed.
