(* TcpOpt/HeaderProofs.v -- lemmas for the header level part of C13:
   Part 1: the adapter between the two records for struct TcpOptions
           (TcpOpt/Model.v and Roundtrip/Tcp.v) and the two transliterations of
           try_from_slice / as_slice / data_offset.
   Part 2: explicit results of try_from_elements / try_from_slice, set_options,
           set_options_raw, to_bytes of the header afterwards.
   Part 3: the serialised header through TcpHeaderSlice / TcpSlice /
           TcpHeader::from_slice / read (C08's tcp_dec_enc) and the three
           option iterators.
   Part 4: any byte string: the three views agree.
   Part 5: the statements used by Props/C13.v. *)
From EP Require Import Base.Bytes Base.Lists TcpOpt.Spec TcpOpt.Model TcpOpt.Proofs TcpOpt.Header.
From EP Require Roundtrip.Common Roundtrip.CommonProofs Roundtrip.Tcp Roundtrip.TcpProofs.
Local Open Scope N_scope.

(* ====================================================================== *)
(* Part 1: adapter *)
Lemma of_to_c08 o : of_c08 (to_c08 o) = o.
Proof. destruct o; reflexivity. Qed.
Lemma to_of_c08 o : to_c08 (of_c08 o) = o.
Proof. destruct o; reflexivity. Qed.

Lemma as_slice_adapter o :
  as_slice o = match Tcp.opt_as_slice (to_c08 o) with Some s => Ret s | None => OOB end.
Proof.
  unfold as_slice, Tcp.opt_as_slice, to_c08. cbn [Tcp.o_len Tcp.o_buf].
  destruct (o_len o <=? len (o_buf o)); reflexivity.
Qed.

Lemma data_offset_adapter o : Tcp.opt_data_offset (to_c08 o) = data_offset o.
Proof. reflexivity. Qed.
Lemma header_len_adapter h : Tcp.header_len h = hdr_header_len h.
Proof. reflexivity. Qed.
Lemma hdr_data_offset_adapter h : Tcp.data_offset h = hdr_data_offset h.
Proof. reflexivity. Qed.

Lemma try_from_slice_adapter s :
  try_from_slice s = match Tcp.opt_try_from_slice s with
                     | Some o => Ret (Ok (of_c08 o))
                     | None => Ret (Err (NotEnoughSpace (len s)))
                     end.
Proof.
  unfold try_from_slice, Tcp.opt_try_from_slice, MAX_LEN.
  destruct (40 <? len s) eqn:L; [reflexivity|]. apply N.ltb_ge in L.
  rewrite (write_at_zeros (zeros 40) [] 40 0 s eq_refl eq_refl L). cbn [bind app].
  reflexivity.
Qed.

(* ====================================================================== *)
(* Part 2: explicit results *)
(* the TcpOptions value holding [content] (<= 40 bytes): zero filled buffer,
   length rounded up to the next multiple of four *)
Definition opts_of (content : bytes) : tcp_options :=
  {| o_len := pad4 (len content); o_buf := content ++ zeros (40 - len content) |}.

(* the header after a successful set_options / set_options_raw *)
Definition install (h : Tcp.TcpHeader) (c : bytes) : Tcp.TcpHeader :=
  with_options h (to_c08 (opts_of c)).

Lemma options_install h c : Tcp.options (install h c) = to_c08 (opts_of c).
Proof. reflexivity. Qed.

Lemma install_same_fixed h c : same_fixed_fields h (install h c).
Proof. reflexivity. Qed.

Lemma set_options_ok h els : required_len els <= 40 ->
  set_options h els = Ret (Ok tt, install h (wire_list (map to_opt els))).
Proof. intros H. unfold set_options. rewrite accept_any by assumption. reflexivity. Qed.

Lemma set_options_err h els : 40 < required_len els ->
  set_options h els = Ret (Err (NotEnoughSpace (required_len els)), h).
Proof. intros H. unfold set_options. rewrite reject by assumption. reflexivity. Qed.

Lemma set_options_raw_ok h s : len s <= 40 ->
  set_options_raw h s = Ret (Ok tt, install h s).
Proof. intros H. unfold set_options_raw. rewrite try_from_slice_ok by assumption. reflexivity. Qed.

Lemma set_options_raw_err h s : 40 < len s ->
  set_options_raw h s = Ret (Err (NotEnoughSpace (len s)), h).
Proof. intros H. unfold set_options_raw. rewrite from_slice_reject by assumption. reflexivity. Qed.

Lemma header_len_install h c : hdr_header_len (install h c) = 20 + pad4 (len c).
Proof. reflexivity. Qed.

Lemma data_offset_install h c : len c <= 40 -> hdr_data_offset (install h c) = 5 + pad4 (len c) / 4.
Proof. intros H. unfold hdr_data_offset. apply data_offset_val; [assumption|reflexivity]. Qed.

Lemma to_bytes_install h c : len c <= 40 ->
  Tcp.to_bytes (install h c) = Some (Tcp.fixed_bytes (install h c) ++ c ++ padding (len c)).
Proof.
  intros L. destruct (pad4_props _ L) as (P1 & P2 & P3 & P4).
  unfold Tcp.to_bytes, Tcp.header_len. rewrite options_install.
  cbn [to_c08 opts_of Tcp.o_len Tcp.o_buf o_len o_buf].
  rewrite !len_app, TcpProofs.len_fixed, len_zeros.
  destruct (N.leb_spec (20 + (len c + (40 - len c))) 60); [|lia].
  destruct (N.leb_spec (20 + pad4 (len c)) (20 + (len c + (40 - len c)))); [|lia].
  cbn [andb]. f_equal.
  rewrite (CommonProofs.take_app_more _ _ _ (pad4 (len c))) by (rewrite TcpProofs.len_fixed; reflexivity).
  f_equal. rewrite padding_zeros.
  replace (pad4 (len c)) with (len c + (pad4 (len c) - len c)) at 1 by lia.
  apply take_app_zeros. lia.
Qed.

(* byte 12 of the serialised header: data offset nibble and NS bit *)
Definition b12_sweep : bool :=
  forallb (fun n => forallb (fun ns =>
     TcpProofs.byte12_of (pad4 n) ns =? 16 * (5 + pad4 n / 4) + (if ns then 1 else 0))
     [true; false]) upto40.
Lemma b12_sweep_ok : b12_sweep = true.
Proof. vm_compute. reflexivity. Qed.

Lemma byte12_install_val h c : len c <= 40 ->
  Tcp.byte12 (install h c) = 16 * (5 + pad4 (len c) / 4) + (if Tcp.ns h then 1 else 0).
Proof.
  intros L. rewrite TcpProofs.byte12_is, options_install.
  cbn [to_c08 opts_of Tcp.o_len o_len].
  change (Tcp.ns (install h c)) with (Tcp.ns h).
  pose proof (proj1 (forallb_forall _ _) b12_sweep_ok (len c) (in_upto40 _ L)) as S.
  cbv beta in S. rewrite forallb_forall in S. apply N.eqb_eq. apply S.
  destruct (Tcp.ns h); cbn; auto.
Qed.

Lemma byte12_install h c : len c <= 40 ->
  let b := Tcp.byte12 (install h c) in
  Common.shr (Common.band b 240) 2 = 20 + pad4 (len c)
  /\ Common.shr (Common.band b 240) 4 * 4 = 20 + pad4 (len c).
Proof.
  intros L. destruct (pad4_props _ L) as (P1 & P2 & P3 & P4).
  cbv zeta. rewrite TcpProofs.byte12_is, options_install.
  cbn [to_c08 opts_of Tcp.o_len o_len].
  destruct (TcpProofs.byte12_dec (pad4 (len c)) (Tcp.ns (install h c)) P2 P4) as (D1 & D2 & _).
  split; assumption.
Qed.

Lemma rd_fixed_12 h x : rd (Tcp.fixed_bytes h ++ x) 12 = Some (Tcp.byte12 h).
Proof. rewrite TcpProofs.fixed_explicit. reflexivity. Qed.

(* &s[a..b] in the middle of a concatenation *)
Lemma slice_range_mid (F O R : bytes) n m : n = len F -> m = len F + len O ->
  slice_range (F ++ O ++ R) n m = Ret O.
Proof.
  intros -> ->. unfold slice_range. rewrite !len_app.
  destruct (N.leb_spec (len F) (len F + len O)); [|lia].
  destruct (N.leb_spec (len F + len O) (len F + (len O + len R))); [|lia].
  cbn [andb]. replace (len F + len O - len F) with (len O) by lia.
  rewrite drop_app_exact, take_app_exact. reflexivity.
Qed.

(* ====================================================================== *)
(* Part 3: the serialised header and its views *)
Section Wire.
  Variable h : Tcp.TcpHeader.
  Variable c payload : bytes.
  Hypothesis Lc : len c <= 40.

  Let h' := install h c.
  Let area := c ++ padding (len c).
  Let bs := Tcp.fixed_bytes h' ++ area.
  Let hl := 20 + pad4 (len c).

  Lemma len_area : len area = pad4 (len c).
  Proof.
    destruct (pad4_props _ Lc) as (P1 & P2 & P3 & P4).
    unfold area. rewrite len_app, padding_zeros, len_zeros. lia.
  Qed.

  Lemma w_b12 : Common.shr (Common.band (Tcp.byte12 h') 240) 2 = hl
              /\ Common.shr (Common.band (Tcp.byte12 h') 240) 4 * 4 = hl.
  Proof. exact (byte12_install h c Lc). Qed.

  Lemma w_to_bytes : Tcp.to_bytes h' = Some bs.
  Proof. apply to_bytes_install. exact Lc. Qed.

  Lemma w_len_bs : len bs = hl.
  Proof. unfold bs, hl. rewrite len_app, TcpProofs.len_fixed, len_area. reflexivity. Qed.

  Lemma w_header_slice : Tcp.slice_from_slice (bs ++ payload) = Common.Ok bs.
  Proof.
    unfold bs. rewrite <- app_assoc.
    apply (TcpProofs.slice_from_slice_app _ _ _ (Tcp.byte12 h')).
    - apply TcpProofs.len_fixed.
    - rewrite <- (app_nil_r (Tcp.fixed_bytes h')). apply rd_fixed_12.
    - rewrite len_area. apply w_b12.
  Qed.

  Lemma w_hs_options : hs_options bs = Ret area.
  Proof.
    unfold hs_options, hs_data_offset, bs. rewrite rd_fixed_12. cbn [bind].
    rewrite <- (app_nil_r area) at 1.
    apply slice_range_mid; [symmetry; apply TcpProofs.len_fixed|].
    rewrite TcpProofs.len_fixed, len_area. apply w_b12.
  Qed.

  Lemma w_ts_from_slice : ts_from_slice (bs ++ payload) = Common.Ok (hl, bs ++ payload).
  Proof.
    unfold ts_from_slice.
    assert (LB : len (bs ++ payload) = hl + len payload) by (rewrite len_app, w_len_bs; reflexivity).
    rewrite LB. destruct (N.ltb_spec (hl + len payload) 20); [unfold hl in *; lia|].
    unfold bs at 1. rewrite <- app_assoc, rd_fixed_12. cbv zeta.
    rewrite (proj1 w_b12).
    destruct (N.ltb_spec hl 20); [unfold hl in *; lia|].
    destruct (N.ltb_spec (hl + len payload) hl); [lia|]. reflexivity.
  Qed.

  Lemma w_ts_options : ts_options (hl, bs ++ payload) = Ret area.
  Proof.
    unfold ts_options. cbn [fst snd]. unfold bs. rewrite <- app_assoc.
    apply slice_range_mid; [symmetry; apply TcpProofs.len_fixed|].
    rewrite TcpProofs.len_fixed, len_area. reflexivity.
  Qed.

  Lemma w_ts_header_slice : ts_header_slice (hl, bs ++ payload) = Ret bs.
  Proof.
    unfold ts_header_slice. cbn [fst snd]. rewrite len_app, w_len_bs.
    destruct (N.leb_spec hl (hl + len payload)); [|lia].
    rewrite <- w_len_bs. rewrite take_app_exact. reflexivity.
  Qed.

  Lemma w_ts_payload : ts_payload (hl, bs ++ payload) = Ret payload.
  Proof.
    unfold ts_payload. cbn [fst snd]. rewrite len_app, w_len_bs.
    destruct (N.leb_spec hl (hl + len payload)); [|lia].
    rewrite <- w_len_bs. rewrite drop_app_exact. reflexivity.
  Qed.

  Lemma w_hdr_area : hdr_options_area h' = Ret area.
  Proof.
    unfold hdr_options_area, h'. rewrite options_install, of_to_c08. apply as_slice_padded. exact Lc.
  Qed.

  Lemma w_hdr_iterate : hdr_options_iterate h' = iterate area.
  Proof.
    unfold hdr_options_iterate, elements_iterate, h'. rewrite options_install, of_to_c08.
    rewrite (as_slice_padded _ Lc : as_slice (opts_of _) = _). reflexivity.
  Qed.

  Lemma w_hs_iterate : hs_options_iterate bs = iterate area.
  Proof. unfold hs_options_iterate. rewrite w_hs_options. reflexivity. Qed.

  Lemma w_ts_iterate : ts_options_iterate (hl, bs ++ payload) = iterate area.
  Proof. unfold ts_options_iterate. rewrite w_ts_options. reflexivity. Qed.

  (* -- the part that needs C08's round trip: field ranges of h, byte range of c -- *)
  Hypothesis Wh : Tcp.wf_tcp h = true.
  Hypothesis Bc : bytes_ok c.

  Lemma w_wf_opt : Tcp.wf_opt (to_c08 (opts_of c)) = true.
  Proof.
    destruct (pad4_props _ Lc) as (P1 & P2 & P3 & P4).
    unfold Tcp.wf_opt, to_c08, opts_of. cbn [Tcp.o_len Tcp.o_buf o_len o_buf].
    destruct (N.leb_spec (pad4 (len c)) 40); [|lia]. rewrite P4.
    change (0 =? 0) with true. rewrite len_app, len_zeros.
    replace (len c + (40 - len c) =? 40) with true by (symmetry; apply N.eqb_eq; lia).
    cbn [andb]. apply bytes_okb_spec, bytes_ok_app. split; [exact Bc|].
    apply CommonProofs.bytes_ok_zeros.
  Qed.

  Lemma w_wf : Tcp.wf_tcp h' = true.
  Proof.
    pose proof Wh as W. unfold Tcp.wf_tcp in W |- *.
    apply andb_true_iff in W. destruct W as [W _].
    apply andb_true_iff. split; [exact W|]. exact w_wf_opt.
  Qed.

  Lemma w_norm : Tcp.norm h' = h'.
  Proof.
    destruct (pad4_props _ Lc) as (P1 & P2 & P3 & P4).
    unfold h', install. change (Tcp.norm (with_options h (to_c08 (opts_of c))))
      with (with_options h (Tcp.norm_opt (to_c08 (opts_of c)))).
    f_equal. unfold Tcp.norm_opt, to_c08, opts_of. cbn [Tcp.o_len Tcp.o_buf o_len o_buf].
    f_equal.
    replace (pad4 (len c)) with (len c + (pad4 (len c) - len c)) at 1 by lia.
    rewrite take_app_zeros by lia. rewrite <- app_assoc. f_equal.
    change (Common.zeros (40 - pad4 (len c))) with (zeros (40 - pad4 (len c))).
    rewrite <- zeros_split. f_equal. lia.
  Qed.

  Lemma w_from_slice : Tcp.from_slice (bs ++ payload) = Common.Ok (h', payload)
                    /\ Tcp.read (bs ++ payload) = Common.Ok (h', payload).
  Proof.
    destruct (TcpProofs.tcp_dec_enc h' payload w_wf) as (e & E1 & E2 & E3 & _).
    rewrite w_to_bytes in E1. apply CommonProofs.Some_inj in E1. subst e.
    rewrite w_norm in E2, E3. split; assumption.
  Qed.
End Wire.

(* ---- bytes of encoded elements are bytes ---- *)
Lemma bytes_ok_to_be32 v : bytes_ok (to_be32 v).
Proof.
  unfold to_be32. repeat (apply CommonProofs.bytes_ok_explicit_cons; [apply N.mod_lt; lia|]). constructor.
Qed.

Lemma bytes_ok_block b : bytes_ok (wire_block b).
Proof. unfold wire_block. apply bytes_ok_app. split; apply bytes_ok_to_be32. Qed.

Lemma bytes_ok_wire e : element_ok e -> bytes_ok (wire (to_opt e)).
Proof.
  destruct e as [|v|v| |f [[a b] c]|ta tb]; cbn [element_ok to_opt wire]; intros H.
  - repeat constructor.
  - unfold to_be16. repeat (apply CommonProofs.bytes_ok_explicit_cons; [try (apply N.mod_lt); lia|]). constructor.
  - unfold u8_ok in H. repeat (apply CommonProofs.bytes_ok_explicit_cons; [lia|]). constructor.
  - repeat (apply CommonProofs.bytes_ok_explicit_cons; [lia|]). constructor.
  - apply bytes_ok_app. split.
    + destruct a, b, c; cbn [acks_list somes]; rewrite ?len_cons, ?len_nil;
        repeat (apply CommonProofs.bytes_ok_explicit_cons; [lia|]); constructor.
    + induction (f :: somes (acks_list (a, b, c))) as [|x l IH]; [constructor|].
      cbn [map concat]. apply bytes_ok_app. split; [apply bytes_ok_block|exact IH].
  - apply CommonProofs.bytes_ok_explicit_cons; [lia|].
    apply CommonProofs.bytes_ok_explicit_cons; [lia|].
    apply bytes_ok_app. split; apply bytes_ok_to_be32.
Qed.

Lemma bytes_ok_wire_list els : Forall element_ok els -> bytes_ok (wire_list (map to_opt els)).
Proof.
  induction 1 as [|e els He _ IH]; [constructor|].
  unfold wire_list in *. cbn [map concat]. apply bytes_ok_app. split; [apply bytes_ok_wire; exact He|exact IH].
Qed.

Lemma iterate_encoded els : Forall element_ok els ->
  iterate (wire_list (map to_opt els) ++ padding (required_len els))
  = Ret (enc_trace els (padding (required_len els)), []).
Proof.
  intros Hok. apply iterate_wire; [assumption|]. rewrite padding_zeros. apply next_zeros.
Qed.

(* ====================================================================== *)
(* Part 4: any byte string seen through the three views *)
Lemma ts_from_slice_eq s :
  ts_from_slice s = match Tcp.slice_from_slice s with
                    | Common.Ok hs => Common.Ok (len hs, s)
                    | Common.Err e => Common.Err e
                    end.
Proof.
  unfold ts_from_slice, Tcp.slice_from_slice.
  destruct (len s <? 20); [reflexivity|].
  destruct (rd s 12) as [b12|]; [|reflexivity]. cbv zeta.
  destruct (Common.shr (Common.band b12 240) 2 <? 20); [reflexivity|].
  destruct (N.ltb_spec (len s) (Common.shr (Common.band b12 240) 2)); [reflexivity|].
  rewrite len_take. do 2 f_equal. lia.
Qed.

Lemma slice_from_slice_char s hs : Tcp.slice_from_slice s = Common.Ok hs ->
  exists b12, rd s 12 = Some b12
    /\ 20 <= Common.shr (Common.band b12 240) 2 <= len s
    /\ hs = take (Common.shr (Common.band b12 240) 2) s.
Proof.
  unfold Tcp.slice_from_slice. intros H.
  destruct (len s <? 20); [discriminate|].
  destruct (rd s 12) as [b12|]; [|discriminate]. cbv zeta in H.
  destruct (N.ltb_spec (Common.shr (Common.band b12 240) 2) 20); [discriminate|].
  destruct (N.ltb_spec (len s) (Common.shr (Common.band b12 240) 2)); [discriminate|].
  apply CommonProofs.Ok_inj in H. exists b12. repeat split; try assumption. symmetry; exact H.
Qed.

Lemma drop_take_comm {A} (l : list A) a b : a <= len l -> drop a (take (a + b) l) = take b (drop a l).
Proof.
  intros H. rewrite CommonProofs.take_drop_split.
  apply Lists.drop_app_len. rewrite len_take. lia.
Qed.

(* to_header on a header slice: the option part *)
Lemma to_header_options hs b12 : bytes_ok hs -> rd hs 12 = Some b12 -> 20 <= len hs ->
  len hs = Common.shr (Common.band b12 240) 2 ->
  exists h, Tcp.to_header hs = Common.Ok h
    /\ Tcp.options h = {| Tcp.o_len := len hs - 20;
                          Tcp.o_buf := drop 20 hs ++ Common.zeros (40 - (len hs - 20)) |}.
Proof.
  intros OK R L20 HL.
  assert (L : (len hs <? 20) = false) by (apply N.ltb_ge; exact L20).
  assert (B12 : b12 < 256) by (eapply rd_ok; eassumption).
  assert (L1 : (Common.shr (Common.band b12 240) 2 <? 20) = false) by (apply N.ltb_ge; lia).
  destruct (TcpProofs.Q12_facts b12 B12 L1) as (_ & Q2 & Q3 & _). cbv zeta in Q2, Q3.
  destruct hs as [|b0 [|b1 [|b2 [|b3 [|b4 [|b5 [|b6 [|b7 [|b8 [|b9 [|b10 [|b11 [|b12' [|b13 [|b14
    [|b15 [|b16 [|b17 [|b18 [|b19 r]]]]]]]]]]]]]]]]]]]]; try (vm_compute in L; discriminate).
  clear L.
  assert (E12 : b12' = b12) by (vm_compute in R; congruence). subst b12'.
  set (hs := b0 :: b1 :: b2 :: b3 :: b4 :: b5 :: b6 :: b7 :: b8 :: b9 :: b10 :: b11 :: b12 :: b13
             :: b14 :: b15 :: b16 :: b17 :: b18 :: b19 :: r) in *.
  assert (DR : drop 20 hs = r) by reflexivity.
  assert (LR : len r = len hs - 20).
  { unfold hs. rewrite !len_cons. lia. }
  assert (SR : Common.slice_range hs 20 (Common.shr (Common.band b12 240) 4 * 4) = Some r).
  { unfold Common.slice_range. rewrite Q2, <- HL.
    destruct (N.leb_spec 20 (len hs)); [|lia]. rewrite N.leb_refl. cbn [andb].
    rewrite DR. f_equal. apply Lists.take_all. lia. }
  unfold Tcp.to_header. unfold hs at 1. cbv beta iota zeta. rewrite SR.
  replace (40 <? len r) with false by (symmetry; apply N.ltb_ge; lia).
  eexists. split; [reflexivity|]. cbn [Tcp.options]. rewrite DR, LR.
  f_equal. unfold Common.as_u8. apply N.mod_small. lia.
Qed.

Lemma views_agree s hs : bytes_ok s -> Tcp.slice_from_slice s = Common.Ok hs ->
  exists h,
    let area := take (len hs - 20) (drop 20 s) in
    Tcp.from_slice s = Common.Ok (h, drop (len hs) s)
    /\ ts_from_slice s = Common.Ok (len hs, s)
    /\ ts_header_slice (len hs, s) = Ret hs
    /\ ts_payload (len hs, s) = Ret (drop (len hs) s)
    /\ hs_options hs = Ret area
    /\ ts_options (len hs, s) = Ret area
    /\ hdr_options_area h = Ret area
    /\ hs_options_iterate hs = iterate area
    /\ ts_options_iterate (len hs, s) = iterate area
    /\ hdr_options_iterate h = iterate area.
Proof.
  intros OK H.
  destruct (slice_from_slice_char s hs H) as (b12 & R & (HL1 & HL2) & Ehs).
  set (hl := Common.shr (Common.band b12 240) 2) in *.
  assert (Lhs : len hs = hl) by (rewrite Ehs, len_take; lia).
  assert (OKhs : bytes_ok hs) by (rewrite Ehs; apply bytes_ok_take; exact OK).
  assert (Rhs : rd hs 12 = Some b12).
  { rewrite Ehs. rewrite Lists.rd_take_lt by lia. exact R. }
  destruct (to_header_options hs b12 OKhs Rhs ltac:(lia) Lhs) as (h & TH & OH).
  assert (B12 : b12 < 256) by (eapply rd_ok; eassumption).
  assert (L1 : (hl <? 20) = false) by (apply N.ltb_ge; lia).
  destruct (TcpProofs.Q12_facts b12 B12 L1) as (_ & Q2 & Q3 & _). cbv zeta in Q2, Q3. fold hl in Q2, Q3.
  assert (D20 : drop 20 hs = take (hl - 20) (drop 20 s)).
  { rewrite Ehs. replace hl with (20 + (hl - 20)) at 1 by lia. apply drop_take_comm. lia. }
  assert (A1 : hs_options hs = Ret (take (hl - 20) (drop 20 s))).
  { unfold hs_options, hs_data_offset. rewrite Rhs. cbn [bind]. rewrite Q2.
    unfold slice_range. rewrite Lhs.
    destruct (N.leb_spec 20 hl); [|lia]. rewrite N.leb_refl. cbn [andb].
    rewrite D20. f_equal. apply Lists.take_all. rewrite len_take, len_drop. lia. }
  assert (A2 : ts_options (hl, s) = Ret (take (hl - 20) (drop 20 s))).
  { unfold ts_options, slice_range. cbn [fst snd].
    destruct (N.leb_spec 20 hl); [|lia]. destruct (N.leb_spec hl (len s)); [|lia]. reflexivity. }
  assert (A3 : hdr_options_area h = Ret (take (hl - 20) (drop 20 s))).
  { unfold hdr_options_area, as_slice, of_c08. rewrite OH. cbn [Tcp.o_len Tcp.o_buf o_len o_buf].
    rewrite Lhs, D20.
    assert (LA : len (take (hl - 20) (drop 20 s)) = hl - 20) by (rewrite len_take, len_drop; lia).
    rewrite len_app, LA, CommonProofs.len_zeros.
    destruct (N.leb_spec (hl - 20) (hl - 20 + (40 - (hl - 20)))); [|lia].
    rewrite <- LA at 1. rewrite take_app_exact. reflexivity. }
  exists h. cbv zeta. rewrite Lhs.
  split; [|split; [|split; [|split; [|split; [|split; [|split; [|split; [|split]]]]]]]].
  - unfold Tcp.from_slice. rewrite H, TH. unfold Common.slice_from. rewrite Lhs.
    destruct (N.leb_spec hl (len s)); [|lia]. reflexivity.
  - rewrite ts_from_slice_eq, H, Lhs. reflexivity.
  - unfold ts_header_slice. cbn [fst snd]. destruct (N.leb_spec hl (len s)); [|lia].
    rewrite Ehs. reflexivity.
  - unfold ts_payload. cbn [fst snd]. destruct (N.leb_spec hl (len s)); [|lia]. reflexivity.
  - exact A1.
  - exact A2.
  - exact A3.
  - unfold hs_options_iterate. rewrite A1. reflexivity.
  - unfold ts_options_iterate. rewrite A2. reflexivity.
  - unfold hdr_options_iterate, elements_iterate. fold (hdr_options_area h). rewrite A3. reflexivity.
Qed.

Lemma views_agree_err s e : Tcp.slice_from_slice s = Common.Err e ->
  ts_from_slice s = Common.Err e /\ Tcp.from_slice s = Common.Err e.
Proof.
  intros H. split.
  - rewrite ts_from_slice_eq, H. reflexivity.
  - unfold Tcp.from_slice. rewrite H. reflexivity.
Qed.

(* ====================================================================== *)
(* Part 5: the statements of Props/C13.v *)
Lemma c13_header_set_options : forall h els,
  (required_len els <= 40 ->
     exists h' bs,
       set_options h els = Ret (Ok tt, h')
       /\ same_fixed_fields h h'
       /\ hdr_data_offset h' = 5 + pad4 (required_len els) / 4
       /\ hdr_header_len h' = 20 + pad4 (required_len els)
       /\ Tcp.to_bytes h' = Some bs
       /\ len bs = hdr_header_len h'
       /\ take 20 bs = Tcp.fixed_bytes h'
       /\ rd bs 12 = Some (16 * hdr_data_offset h' + (if Tcp.ns h then 1 else 0))
       /\ options_area_of bs = wire_list (map to_opt els) ++ padding (required_len els))
  /\ (40 < required_len els ->
       set_options h els = Ret (Err (NotEnoughSpace (required_len els)), h))
  /\ (forall r h', set_options h els = Ret (r, h') -> (r = Ok tt <-> required_len els <= 40)).
Proof.
  intros h els. split; [|split].
  - intros Hreq. set (W := wire_list (map to_opt els)).
    assert (LW : len W = required_len els) by (symmetry; apply required_len_wire).
    assert (Lc : len W <= 40) by lia.
    exists (install h W), (Tcp.fixed_bytes (install h W) ++ W ++ padding (len W)).
    rewrite <- LW.
    split; [apply set_options_ok; lia|].
    split; [apply install_same_fixed|].
    split; [apply data_offset_install; exact Lc|].
    split; [apply header_len_install|].
    split; [apply to_bytes_install; exact Lc|].
    split; [rewrite (w_len_bs h W Lc); reflexivity|].
    split; [apply Lists.take_app_len; symmetry; apply TcpProofs.len_fixed|].
    split.
    + rewrite rd_fixed_12, byte12_install_val by exact Lc.
      rewrite data_offset_install by exact Lc. reflexivity.
    + unfold options_area_of. apply Lists.drop_app_len. symmetry; apply TcpProofs.len_fixed.
  - apply set_options_err.
  - intros r h' H. destruct (N.le_gt_cases (required_len els) 40) as [L|L].
    + rewrite set_options_ok in H by exact L. injection H as <- _. split; auto.
    + rewrite set_options_err in H by exact L. injection H as <- _.
      split; [discriminate|lia].
Qed.

Lemma c13_header_set_options_raw : forall h data,
  (len data <= 40 ->
     exists h' bs,
       set_options_raw h data = Ret (Ok tt, h')
       /\ same_fixed_fields h h'
       /\ hdr_data_offset h' = 5 + pad4 (len data) / 4
       /\ hdr_header_len h' = 20 + pad4 (len data)
       /\ Tcp.to_bytes h' = Some bs
       /\ len bs = hdr_header_len h'
       /\ take 20 bs = Tcp.fixed_bytes h'
       /\ options_area_of bs = data ++ padding (len data)
       /\ hdr_options_area h' = Ret (data ++ padding (len data))
       /\ (forall payload,
             Tcp.slice_from_slice (bs ++ payload) = Common.Ok bs
             /\ hs_options bs = Ret (data ++ padding (len data))
             /\ ts_from_slice (bs ++ payload) = Common.Ok (hdr_header_len h', bs ++ payload)
             /\ ts_options (hdr_header_len h', bs ++ payload) = Ret (data ++ padding (len data))
             /\ (Tcp.wf_tcp h = true -> bytes_ok data ->
                 Tcp.from_slice (bs ++ payload) = Common.Ok (h', payload))))
  /\ (40 < len data ->
       set_options_raw h data = Ret (Err (NotEnoughSpace (len data)), h)).
Proof.
  intros h data. split.
  - intros Lc.
    exists (install h data), (Tcp.fixed_bytes (install h data) ++ data ++ padding (len data)).
    split; [apply set_options_raw_ok; exact Lc|].
    split; [apply install_same_fixed|].
    split; [apply data_offset_install; exact Lc|].
    split; [apply header_len_install|].
    split; [apply to_bytes_install; exact Lc|].
    split; [rewrite (w_len_bs h data Lc); reflexivity|].
    split; [apply Lists.take_app_len; symmetry; apply TcpProofs.len_fixed|].
    split; [unfold options_area_of; apply Lists.drop_app_len; symmetry; apply TcpProofs.len_fixed|].
    split; [apply w_hdr_area; exact Lc|].
    intros payload.
    split; [apply w_header_slice; exact Lc|].
    split; [apply w_hs_options; exact Lc|].
    split; [apply w_ts_from_slice; exact Lc|].
    split; [apply w_ts_options; exact Lc|].
    intros Wh Bc. apply (w_from_slice h data payload Lc Wh Bc).
  - apply set_options_raw_err.
Qed.

Lemma c13_header_wire_roundtrip : forall h els payload,
  Tcp.wf_tcp h = true -> Forall element_ok els -> required_len els <= 40 ->
  exists h' bs tr,
    set_options h els = Ret (Ok tt, h')
    /\ Tcp.to_bytes h' = Some bs
    (* TcpHeaderSlice::from_slice on header + payload: the header bytes; its options() *)
    /\ Tcp.slice_from_slice (bs ++ payload) = Common.Ok bs
    /\ hs_options bs = Ret (wire_list (map to_opt els) ++ padding (required_len els))
    /\ hs_options_iterate bs = Ret (tr, [])
    (* TcpSlice::from_slice *)
    /\ ts_from_slice (bs ++ payload) = Common.Ok (hdr_header_len h', bs ++ payload)
    /\ ts_payload (hdr_header_len h', bs ++ payload) = Ret payload
    /\ ts_options_iterate (hdr_header_len h', bs ++ payload) = Ret (tr, [])
    (* TcpHeader::from_slice / read: the same header value comes back *)
    /\ Tcp.from_slice (bs ++ payload) = Common.Ok (h', payload)
    /\ Tcp.read (bs ++ payload) = Common.Ok (h', payload)
    /\ hdr_options_iterate h' = Ret (tr, [])
    (* what the iterators yield *)
    /\ map fst tr = map (fun e => Ok (compact e)) els
    /\ last_rest (wire_list (map to_opt els) ++ padding (required_len els)) tr
       = padding (required_len els).
Proof.
  intros h els payload Wh Hok Hreq. set (W := wire_list (map to_opt els)).
  assert (LW : len W = required_len els) by (symmetry; apply required_len_wire).
  assert (Lc : len W <= 40) by lia.
  assert (Bc : bytes_ok W) by (apply bytes_ok_wire_list; exact Hok).
  pose proof (iterate_encoded els Hok) as IT. fold W in IT. rewrite <- LW in IT.
  exists (install h W), (Tcp.fixed_bytes (install h W) ++ W ++ padding (len W)),
         (enc_trace els (padding (len W))).
  rewrite <- LW.
  destruct (w_from_slice h W payload Lc Wh Bc) as (FS & RD).
  change (hdr_header_len (install h W)) with (20 + pad4 (len W)).
  split; [apply set_options_ok; lia|].
  split; [apply to_bytes_install; exact Lc|].
  split; [apply w_header_slice; exact Lc|].
  split; [apply w_hs_options; exact Lc|].
  split; [rewrite (w_hs_iterate h W Lc); exact IT|].
  split; [apply w_ts_from_slice; exact Lc|].
  split; [apply w_ts_payload; exact Lc|].
  split; [rewrite (w_ts_iterate h W payload Lc); exact IT|].
  split; [exact FS|]. split; [exact RD|].
  split; [rewrite (w_hdr_iterate h W Lc); exact IT|].
  split; [apply enc_trace_items|apply enc_trace_last].
Qed.

