(* TcpOpt/Proofs.v -- lemmas for property C13.
   Part 1: big-endian round trips.
   Part 2: one call of next(): what it returns on each well-formed option; it never
           faults and is described by [next_rel] (the RFC wire format of Spec.v).
   Part 3: the whole iteration ([trace_rel]) and its consequences: tiling,
           error truth, boundedness, exhaustion.
   Part 4: try_from_elements / try_from_slice / as_slice and the round trip; acceptance
           in RFC vocabulary; when the round trip returns the same elements. *)
From EP Require Import Base.Bytes Base.Lists TcpOpt.Spec TcpOpt.Model.
Local Open Scope N_scope.

Lemma be_val_1 a : be_val [a] = a.
Proof. cbn [be_val]. change (256 ^ len (@nil N)) with 1. lia. Qed.
Lemma be_val_2 a b : be_val [a; b] = be16 a b.
Proof. unfold be16. cbn [be_val]. change (256 ^ len [b]) with 256. change (256 ^ len (@nil N)) with 1. lia. Qed.
Lemma be_val_4 a b c d : be_val [a; b; c; d] = be32 a b c d.
Proof.
  unfold be32. cbn [be_val]. change (256 ^ len [b; c; d]) with 16777216.
  change (256 ^ len [c; d]) with 65536. change (256 ^ len [d]) with 256.
  change (256 ^ len (@nil N)) with 1. lia.
Qed.

(* arithmetic on numerals is blocked for cbn (Base/Bytes.v: simpl never); [norm_lits] replaces
   every operation on two numerals by its value *)
Ltac is_plit p := lazymatch p with xH => idtac | xO ?q => is_plit q | xI ?q => is_plit q end.
Ltac is_lit n := lazymatch n with N0 => idtac | Npos ?p => is_plit p end.
Ltac norm1 f a b := is_lit a; is_lit b; let v := eval vm_compute in (f a b) in change (f a b) with v.
Ltac norm_lits := repeat match goal with
  | |- context [N.add ?a ?b] => norm1 N.add a b
  | |- context [N.mul ?a ?b] => norm1 N.mul a b
  | |- context [N.sub ?a ?b] => norm1 N.sub a b
  | |- context [N.eqb ?a ?b] => norm1 N.eqb a b
  | |- context [N.ltb ?a ?b] => norm1 N.ltb a b
  | |- context [N.leb ?a ?b] => norm1 N.leb a b
  | |- context [N.to_nat ?a] => is_lit a; let v := eval vm_compute in (N.to_nat a) in change (N.to_nat a) with v
  end.

(* what one call of next() does, in terms of the RFC vocabulary *)
Inductive next_rel (bs : bytes) : option item -> bytes -> Prop :=
| NR_empty : bs = [] -> next_rel bs None []
| NR_end r : bs = 0 :: r -> next_rel bs None []
| NR_ok e r : len r < len bs -> canonical e ->
    (bytes_ok bs -> bs = wire (to_opt e) ++ r /\ element_ok e) ->
    next_rel bs (Some (Ok e)) r
| NR_err e : bs <> [] -> err_true bs e -> spec_next bs = SErr e -> next_rel bs (Some (Err e)) [].

Lemma slice_range_end s : slice_range s (len s) (len s) = Ret [].
Proof.
  unfold slice_range. rewrite !N.leb_refl. cbn [andb]. rewrite N.sub_diag. reflexivity.
Qed.

Lemma len_pos_cons {A} (x : A) l : len (x :: l) =? 0 = false.
Proof. rewrite len_cons. apply N.eqb_neq. lia. Qed.

Ltac len_norm := rewrite ?len_cons, ?len_nil in *.

(* split a list known to be long enough into explicit cons cells *)
Ltac uncons bs H :=
  let x := fresh "x" in
  destruct bs as [|x bs]; [exfalso; len_norm; lia|].

Lemma ess_char L k bs : 2 <= L ->
  (len (k :: bs) < L /\
     expect_specific_size L (k :: bs) = Ret (Err (UnexpectedEndOfSlice k L (len (k :: bs)))))
  \/ (exists s r, bs = s :: r /\ L <= len (k :: bs) /\ s <> L /\
     expect_specific_size L (k :: bs) = Ret (Err (UnexpectedSize k s)))
  \/ (exists r, bs = L :: r /\ L <= len (k :: bs) /\
     expect_specific_size L (k :: bs) = Ret (Ok tt)).
Proof.
  intros HL. unfold expect_specific_size.
  change (idx (k :: bs) 0) with (Ret k). cbn [bind].
  destruct (N.ltb_spec (len (k :: bs)) L) as [Hs|Hs].
  { left. split; [exact Hs|reflexivity]. }
  right. destruct bs as [|s r]; [exfalso; len_norm; lia|].
  change (idx (k :: s :: r) 1) with (Ret s). cbn [bind].
  destruct (N.eqb_spec s L) as [->|Hne]; cbn [negb bind].
  - right. exists r. repeat split; assumption.
  - left. exists s, r. repeat split; assumption.
Qed.

(* [err_true] is what the reference decoder reports *)
Lemma spec_err_true bs e : spec_next bs = SErr e -> err_true bs e.
Proof.
  destruct bs as [|k r]; [discriminate|]. unfold spec_next.
  destruct (N.eqb_spec k 0) as [|K0]; [discriminate|].
  destruct (N.eqb_spec k 1) as [|K1]; [discriminate|].
  destruct (known_lens k) as [ls|] eqn:HK.
  2:{ intros [= <-]. now apply ET_unknown. }
  set (bs := k :: r).
  (* the length the option must have: l, justified as ET_short asks, or a length octet s that is not allowed *)
  assert (N : match match ls with
                    | [l] => inl l
                    | _ => match rd bs 1 with
                           | None => inl 2
                           | Some s => if mem s ls then inl s else inr s
                           end
                    end with
              | inl l => (ls = [l] \/ (rd bs 1 = Some l /\ mem l ls = true) \/ (l = 2 /\ len bs < 2))
                         /\ forall s, rd bs 1 = Some s -> s <> l -> mem s ls = false
              | inr s => rd bs 1 = Some s /\ mem s ls = false
              end).
  { destruct ls as [|l0 [|l1 ls]].
    1, 3: destruct (rd bs 1) as [s|] eqn:R1;
      [ destruct (mem s _) eqn:Hm;
        [split; [right; left; split; [reflexivity|exact Hm] | intros s' [= <-] Hne; congruence]
        | split; [reflexivity|exact Hm] ]
      | split; [right; right; split; [reflexivity|]; subst bs; destruct r; [reflexivity|discriminate]
               | discriminate] ].
    split; [left; reflexivity|]. intros s _ Hne. unfold mem. cbn [existsb].
    rewrite orb_false_r. now apply N.eqb_neq. }
  revert N. destruct (match ls with [l] => inl l | _ => _ end) as [l|s].
  2:{ intros [R1 Hm] [= <-]. now apply ET_size with ls. }
  intros [Hl Hs]. destruct (N.ltb_spec (len bs) l) as [Hlt|_].
  { intros [= <-]. now apply ET_short with ls. }
  destruct (rd bs 1) as [s|] eqn:R1.
  - destruct (N.eqb_spec s l) as [|Hne]; [discriminate|].
    intros [= <-]. apply ET_size with ls; auto.
  - intros [= <-]. assert (L2 : len bs < 2) by (subst bs; destruct r; [reflexivity|discriminate]).
    apply ET_short with ls; auto.
Qed.

Lemma next_rel_err bs e : bs <> [] -> spec_next bs = SErr e -> next_rel bs (Some (Err e)) [].
Proof. intros Hne H. apply NR_err; [exact Hne | apply spec_err_true; exact H | exact H]. Qed.

(* the reference decoder of Spec.v on malformed inputs *)
Lemma spec_fixed_short k L bs : known_lens k = Some [L] -> k <> 0 -> k <> 1 ->
  len (k :: bs) < L ->
  spec_next (k :: bs) = SErr (UnexpectedEndOfSlice k L (len (k :: bs))).
Proof.
  intros HK K0 K1 Hs. unfold spec_next.
  apply N.eqb_neq in K0, K1. rewrite K0, K1, HK.
  apply N.ltb_lt in Hs. rewrite Hs. reflexivity.
Qed.

Lemma spec_fixed_size k L s r : known_lens k = Some [L] -> k <> 0 -> k <> 1 ->
  L <= len (k :: s :: r) -> s <> L ->
  spec_next (k :: s :: r) = SErr (UnexpectedSize k s).
Proof.
  intros HK K0 K1 Hl Hne. unfold spec_next.
  apply N.eqb_neq in K0, K1. rewrite K0, K1, HK.
  apply N.ltb_ge in Hl. rewrite Hl.
  change (rd (k :: s :: r) 1) with (Some s). cbv iota beta.
  apply N.eqb_neq in Hne. rewrite Hne. reflexivity.
Qed.

Lemma spec_sack_short1 bs : len (5 :: bs) < 2 ->
  spec_next (5 :: bs) = SErr (UnexpectedEndOfSlice 5 2 (len (5 :: bs))).
Proof.
  intros Hs. destruct bs as [|x bs]; [reflexivity|].
  exfalso. rewrite !len_cons in Hs. lia.
Qed.

Lemma spec_sack_short2 s r : mem s [10; 18; 26; 34] = true -> len (5 :: s :: r) < s ->
  spec_next (5 :: s :: r) = SErr (UnexpectedEndOfSlice 5 s (len (5 :: s :: r))).
Proof.
  intros Hm Hs. unfold spec_next. norm_lits. cbv iota beta.
  change (known_lens 5) with (Some [10; 18; 26; 34]). cbv iota beta.
  change (rd (5 :: s :: r) 1) with (Some s). cbv iota beta. rewrite Hm.
  apply N.ltb_lt in Hs. rewrite Hs. reflexivity.
Qed.

Lemma spec_sack_size s r : s <> 10 -> s <> 18 -> s <> 26 -> s <> 34 ->
  spec_next (5 :: s :: r) = SErr (UnexpectedSize 5 s).
Proof.
  intros H1 H2 H3 H4. unfold spec_next. norm_lits. cbv iota beta.
  change (known_lens 5) with (Some [10; 18; 26; 34]). cbv iota beta.
  change (rd (5 :: s :: r) 1) with (Some s). cbv iota beta.
  unfold mem. cbn [existsb]. apply N.eqb_neq in H1, H2, H3, H4. rewrite H1, H2, H3, H4. reflexivity.
Qed.

Lemma spec_unknown k bs : k <> 0 -> k <> 1 -> known_lens k = None ->
  spec_next (k :: bs) = SErr (UnknownId k).
Proof.
  intros K0 K1 HK. unfold spec_next. apply N.eqb_neq in K0, K1. rewrite K0, K1, HK. reflexivity.
Qed.

Ltac bytes_inv H :=
  repeat match type of H with
  | bytes_ok (_ :: _) => let Hb := fresh "Hb" in apply bytes_ok_cons in H; destruct H as [Hb H]; unfold byte_ok in Hb
  end.


(* ---- next() on each well-formed option that is not a SACK ---- *)
Lemma ess_ok L k r : L <= len (k :: L :: r) -> expect_specific_size L (k :: L :: r) = Ret (Ok tt).
Proof.
  intros H. unfold expect_specific_size.
  change (idx (k :: L :: r) 0) with (Ret k). change (idx (k :: L :: r) 1) with (Ret L). cbn [bind].
  apply N.ltb_ge in H. rewrite H, N.eqb_refl. reflexivity.
Qed.

Lemma slice_from_le s n : n <= len s -> slice_from s n = Ret (drop n s).
Proof. intros H. unfold slice_from. apply N.leb_le in H. rewrite H. reflexivity. Qed.

(* evaluation of the kind dispatch and of reads at literal offsets of an explicit list;
   [expect_specific_size] and [slice_from] compare with the symbolic length and stay folded *)
Ltac ev := lazy beta iota delta [next_match bind idx rd nth_error N.to_nat Pos.to_nat Pos.iter_op Init.Nat.add
  unchecked_be_u16 unchecked_be_u32 N.add Pos.add Pos.succ N.eqb Pos.eqb
  KIND_END KIND_NOOP KIND_MAXIMUM_SEGMENT_SIZE KIND_WINDOW_SCALE KIND_SELECTIVE_ACK_PERMITTED
  KIND_SELECTIVE_ACK KIND_TIMESTAMP
  LEN_MAXIMUM_SEGMENT_SIZE LEN_WINDOW_SCALE LEN_SELECTIVE_ACK_PERMITTED LEN_TIMESTAMP].

Ltac next_fixed := unfold next; rewrite len_pos_cons; ev; rewrite ?ess_ok by (len_norm; lia); ev;
  rewrite slice_from_le by (len_norm; lia); reflexivity.

Lemma next_noop r : next (1 :: r) = Ret (Some (Ok Noop), r).
Proof. next_fixed. Qed.
Lemma next_mss a b r : next (2 :: 4 :: a :: b :: r) = Ret (Some (Ok (MaximumSegmentSize (be16 a b))), r).
Proof. next_fixed. Qed.
Lemma next_wscale v r : next (3 :: 3 :: v :: r) = Ret (Some (Ok (WindowScale v)), r).
Proof. next_fixed. Qed.
Lemma next_sack_perm r : next (4 :: 2 :: r) = Ret (Some (Ok SelectiveAcknowledgementPermitted), r).
Proof. next_fixed. Qed.
Lemma next_ts a0 a1 a2 a3 b0 b1 b2 b3 r :
  next (8 :: 10 :: a0 :: a1 :: a2 :: a3 :: b0 :: b1 :: b2 :: b3 :: r) =
  Ret (Some (Ok (Timestamp (be32 a0 a1 a2 a3) (be32 b0 b1 b2 b3))), r).
Proof. next_fixed. Qed.

(* ---- kind 5, SACK: 2 + 8 n octets, n = 1..4 blocks ---- *)
(* the big-endian number in the four octets at an offset; what the unchecked
   read returns when they are inside the slice *)
Lemma unchecked_be_u32_val s off : off + 4 <= len s ->
  unchecked_be_u32 s off = Ret (be_val (take 4 (drop off s))).
Proof.
  intros H. unfold unchecked_be_u32.
  rewrite <- (N.add_0_r off) at 1. rewrite <- !rd_drop.
  assert (L : 4 <= len (drop off s)) by (rewrite len_drop; lia).
  destruct (drop off s) as [|a [|b [|c [|d l]]]]; try (exfalso; len_norm; lia).
  change (take 4 (a :: b :: c :: d :: l)) with [a; b; c; d]. rewrite be_val_4. reflexivity.
Qed.

(* a SACK block: left and right edge, 2 x 32 bit *)
Definition block_at (s : bytes) (off : N) : N * N :=
  (be_val (take 4 (drop off s)), be_val (take 4 (drop (off + 4) s))).

Lemma sack_slot_val s ln i : (10 + i * 8 < ln -> 10 + i * 8 + 8 <= len s) ->
  sack_slot s ln i = Ret (if 10 + i * 8 <? ln then Some (block_at s (10 + i * 8)) else None).
Proof.
  intros H. unfold sack_slot. change (2 + 8) with 10.
  destruct (N.ltb_spec (10 + i * 8) ln) as [Hlt|]; [|reflexivity].
  specialize (H Hlt). rewrite !unchecked_be_u32_val by lia. reflexivity.
Qed.

Definition sack_lens : list N := [10; 18; 26; 34].

(* the optional blocks of a SACK option of size ln *)
Definition sack_acks (s : bytes) (ln : N) : ack * ack * ack :=
  let slot i := if 10 + i * 8 <? ln then Some (block_at s (10 + i * 8)) else None in
  (slot 0, slot 1, slot 2).

Lemma sack_len_test s :
  negb (s =? 10) && negb (s =? 18) && negb (s =? 26) && negb (s =? 34) = negb (mem s sack_lens).
Proof.
  unfold mem, sack_lens. cbn [existsb]. destruct (s =? 10), (s =? 18), (s =? 26), (s =? 34); reflexivity.
Qed.

Lemma mem_sack_lens s : mem s sack_lens = true -> s = 10 \/ s = 18 \/ s = 26 \/ s = 34.
Proof.
  unfold mem, sack_lens. cbn [existsb]. rewrite !orb_true_iff, !N.eqb_eq. intuition discriminate.
Qed.

(* next() on a kind-5 option: the tests in the order of the code *)
Lemma next_sack ln r :
  let bs := 5 :: ln :: r in
  next bs =
    if negb (mem ln sack_lens) then Ret (Some (Err (UnexpectedSize 5 ln)), [])
    else if len bs <? ln then Ret (Some (Err (UnexpectedEndOfSlice 5 ln (len bs))), [])
    else Ret (Some (Ok (SelectiveAcknowledgement (block_at bs 2) (sack_acks bs ln))), drop ln bs).
Proof.
  intros bs. unfold next. unfold bs at 1. rewrite len_pos_cons. unfold next_match.
  change (idx bs 0) with (Ret 5). change (idx bs 1) with (Ret ln). cbn [bind].
  change (5 =? KIND_END) with false. change (5 =? KIND_NOOP) with false.
  change (5 =? KIND_MAXIMUM_SEGMENT_SIZE) with false. change (5 =? KIND_WINDOW_SCALE) with false.
  change (5 =? KIND_SELECTIVE_ACK_PERMITTED) with false. change (5 =? KIND_SELECTIVE_ACK) with true.
  cbv iota.
  replace (len bs <? 2) with false by (symmetry; apply N.ltb_ge; subst bs; len_norm; lia).
  rewrite sack_len_test.
  destruct (mem ln sack_lens) eqn:Hm; cbn [negb bind].
  2:{ rewrite slice_range_end. reflexivity. }
  destruct (N.ltb_spec (len bs) ln) as [Hs|Hs]; cbn [bind].
  { rewrite slice_range_end. reflexivity. }
  assert (10 <= ln) by (destruct (mem_sack_lens ln Hm) as [-> | [-> | [-> | ->]]]; lia).
  rewrite !unchecked_be_u32_val by lia. cbn [bind].
  rewrite !sack_slot_val.
  2-4: destruct (mem_sack_lens ln Hm) as [-> | [-> | [-> | ->]]]; lia.
  cbn [bind]. unfold slice_from. destruct (N.leb_spec ln (len bs)); [|lia]. cbn [bind].
  reflexivity.
Qed.

Lemma next_sack_ok ln r : mem ln sack_lens = true -> ln <= len (5 :: ln :: r) ->
  next (5 :: ln :: r) =
    Ret (Some (Ok (SelectiveAcknowledgement (block_at (5 :: ln :: r) 2) (sack_acks (5 :: ln :: r) ln))),
         drop ln (5 :: ln :: r)).
Proof.
  intros Hm Hl. rewrite next_sack. cbv zeta. rewrite Hm. apply N.ltb_ge in Hl. rewrite Hl. reflexivity.
Qed.

Lemma be_val_to_be32 v : v < 4294967296 -> be_val (to_be32 v) = v.
Proof. intros H. unfold to_be32. rewrite be_val_4. apply be32_to_be32. exact H. Qed.


Lemma block_at_wire s off : bytes_ok s -> off + 8 <= len s ->
  wire_block (block_at s off) = take 8 (drop off s) /\ block_ok (block_at s off).
Proof.
  intros Hok H. unfold block_at. rewrite <- drop_drop.
  assert (L : 8 <= len (drop off s)) by (rewrite len_drop; lia).
  apply (bytes_ok_drop off) in Hok.
  destruct (drop off s) as [|x0 [|x1 [|x2 [|x3 [|x4 [|x5 [|x6 [|x7 l]]]]]]]]; try (exfalso; len_norm; lia).
  bytes_inv Hok.
  change (take 4 (x0 :: x1 :: x2 :: x3 :: x4 :: x5 :: x6 :: x7 :: l)) with [x0; x1; x2; x3].
  change (take 4 (drop 4 (x0 :: x1 :: x2 :: x3 :: x4 :: x5 :: x6 :: x7 :: l))) with [x4; x5; x6; x7].
  rewrite !be_val_4. unfold wire_block, block_ok, u32_ok. cbn [fst snd].
  rewrite !to_be32_be32 by assumption.
  split; [reflexivity|]. split; apply be32_lt; assumption.
Qed.

Lemma block_at_ok s off : bytes_ok s -> off + 8 <= len s -> block_ok (block_at s off).
Proof. intros Hok H. apply (block_at_wire s off Hok H). Qed.

Lemma take8_drop (s : bytes) a b : b = a + 8 -> take 8 (drop a s) ++ drop b s = drop a s.
Proof. intros ->. rewrite <- drop_drop. apply take_drop. Qed.

Lemma next_char_sack bs : exists it r, next (5 :: bs) = Ret (it, r) /\ next_rel (5 :: bs) it r.
Proof.
  destruct bs as [|ln r].
  { eexists _, []. split; [reflexivity|].
    apply next_rel_err; [discriminate | apply spec_sack_short1; reflexivity]. }
  rewrite next_sack. cbv zeta.
  destruct (mem ln sack_lens) eqn:Hm; cbn [negb].
  2:{ eexists _, []. split; [reflexivity|].
      unfold mem, sack_lens in Hm. cbn [existsb] in Hm. rewrite !orb_false_iff, !N.eqb_neq in Hm.
      apply next_rel_err; [discriminate | apply spec_sack_size; tauto]. }
  destruct (N.ltb_spec (len (5 :: ln :: r)) ln) as [Hs|Hs].
  { eexists _, []. split; [reflexivity|].
    apply next_rel_err; [discriminate | now apply spec_sack_short2]. }
  eexists _, _. split; [reflexivity|].
  set (bs := 5 :: ln :: r) in *.
  destruct (mem_sack_lens ln Hm) as [-> | [-> | [-> | ->]]];
    (apply NR_ok; [rewrite len_drop; lia | exact I |]); intros Hok;
    cbv [sack_acks]; norm_lits; cbv iota;
    cbn [to_opt acks_list somes wire map concat element_ok ack_ok].
  all: assert (W : forall off, off + 8 <= len bs -> wire_block (block_at bs off) = take 8 (drop off bs))
         by (intros off Ho; now apply block_at_wire).
  all: split.
  2, 4, 6, 8: repeat apply conj; try exact I; apply block_at_ok; (exact Hok || lia).
  all: rewrite !W by lia; rewrite <- !app_assoc; cbn [app]; rewrite !take8_drop by reflexivity; reflexivity.
Qed.

Lemma next_end r : next (0 :: r) = Ret (None, []).
Proof. unfold next. rewrite len_pos_cons. ev. rewrite slice_range_end. reflexivity. Qed.

(* the kinds with one allowed size *)
Definition fixed_kinds : list (N * N) := [(2, 4); (3, 3); (4, 2); (8, 10)].

Lemma next_fixed_err k L bs e : In (k, L) fixed_kinds ->
  expect_specific_size L (k :: bs) = Ret (Err e) -> next (k :: bs) = Ret (Some (Err e), []).
Proof.
  intros Hin H. unfold next. rewrite len_pos_cons.
  repeat (destruct Hin as [[= <- <-]|Hin]; [ev; rewrite H; ev; rewrite slice_range_end; reflexivity|]).
  destruct Hin.
Qed.

(* such an option is rejected with a true error, or has its size octet and is long enough *)
Lemma next_char_fixed k L bs : In (k, L) fixed_kinds ->
  (exists it r, next (k :: bs) = Ret (it, r) /\ next_rel (k :: bs) it r)
  \/ exists r, bs = L :: r /\ L <= len (k :: L :: r).
Proof.
  intros Hin.
  assert (HK : known_lens k = Some [L] /\ k <> 0 /\ k <> 1 /\ 2 <= L)
    by (repeat (destruct Hin as [[= <- <-]|Hin]; [repeat split; (reflexivity || discriminate)|]); destruct Hin).
  destruct HK as (HK & K0 & K1 & L2).
  destruct (ess_char L k bs L2) as [[Hs E]|[(s & r & -> & Hl & Hne & E)|(r & -> & Hl & _)]].
  - left. eexists _, []. split; [apply (next_fixed_err k L); [exact Hin|exact E]|].
    apply next_rel_err; [discriminate|now apply spec_fixed_short].
  - left. eexists _, []. split; [apply (next_fixed_err k L); [exact Hin|exact E]|].
    apply next_rel_err; [discriminate|now apply spec_fixed_size with L].
  - right. eauto.
Qed.

Lemma next_char bs : exists it r, next bs = Ret (it, r) /\ next_rel bs it r.
Proof.
  destruct bs as [|k bs].
  { exists None, []. split; [reflexivity|]. now constructor. }
  destruct (N.eqb_spec k 0) as [->|K0].
  { exists None, []. split; [apply next_end|now apply NR_end with bs]. }
  destruct (N.eqb_spec k 1) as [->|K1].
  { exists (Some (Ok Noop)), bs. split; [apply next_noop|].
    apply NR_ok; [rewrite len_cons; lia|exact I|]. intros _. split; [reflexivity|exact I]. }
  destruct (N.eqb_spec k 5) as [->|K5]; [apply next_char_sack|].
  destruct (N.eqb_spec k 2) as [->|K2].
  { destruct (next_char_fixed 2 4 bs) as [Done|(r & -> & Hl)]; [cbn; tauto|exact Done|].
    uncons r Hl. uncons r Hl. eexists _, r. split; [apply next_mss|].
    apply NR_ok; [len_norm; lia|exact I|].
    intros Hok. bytes_inv Hok. cbn [to_opt wire app]. rewrite to_be16_be16 by assumption.
    split; [reflexivity|]. apply be16_lt; assumption. }
  destruct (N.eqb_spec k 3) as [->|K3].
  { destruct (next_char_fixed 3 3 bs) as [Done|(r & -> & Hl)]; [cbn; tauto|exact Done|].
    uncons r Hl. eexists _, r. split; [apply next_wscale|].
    apply NR_ok; [len_norm; lia|exact I|].
    intros Hok. bytes_inv Hok. split; [reflexivity|]. exact Hb1. }
  destruct (N.eqb_spec k 4) as [->|K4].
  { destruct (next_char_fixed 4 2 bs) as [Done|(r & -> & Hl)]; [cbn; tauto|exact Done|].
    eexists _, r. split; [apply next_sack_perm|].
    apply NR_ok; [len_norm; lia|exact I|]. intros _. split; [reflexivity|exact I]. }
  destruct (N.eqb_spec k 8) as [->|K8].
  { destruct (next_char_fixed 8 10 bs) as [Done|(r & -> & Hl)]; [cbn; tauto|exact Done|].
    do 8 (uncons r Hl). eexists _, r. split; [apply next_ts|].
    apply NR_ok; [len_norm; lia|exact I|].
    intros Hok. bytes_inv Hok. cbn [to_opt wire app]. rewrite !to_be32_be32 by assumption.
    split; [reflexivity|]. split; apply be32_lt; assumption. }
  assert (HK : known_lens k = None).
  { unfold known_lens. apply N.eqb_neq in K2, K3, K4, K5, K8. rewrite K2, K3, K4, K5, K8. reflexivity. }
  eexists _, []. split; [|apply next_rel_err; [discriminate|now apply spec_unknown]].
  unfold next. rewrite len_pos_cons. unfold next_match.
  change (idx (k :: bs) 0) with (Ret k). cbn [bind].
  apply N.eqb_neq in K0, K1, K2, K3, K4, K5, K8.
  unfold KIND_END, KIND_NOOP, KIND_MAXIMUM_SEGMENT_SIZE, KIND_WINDOW_SCALE,
    KIND_SELECTIVE_ACK_PERMITTED, KIND_SELECTIVE_ACK, KIND_TIMESTAMP.
  rewrite K0, K1, K2, K3, K4, K5, K8. cbn [bind]. rewrite slice_range_end. reflexivity.
Qed.

Lemma next_total bs : exists it r, next bs = Ret (it, r).
Proof. destruct (next_char bs) as (it & r & H & _). eauto. Qed.

Lemma next_nil : next [] = Ret (None, []).
Proof. reflexivity. Qed.

(* the whole iteration *)
Inductive trace_rel : bytes -> list (item * bytes) -> bytes -> Prop :=
| TR_stop bs : (bs = [] \/ exists r, bs = 0 :: r) -> trace_rel bs [] []
| TR_ok bs e r tr fin : next_rel bs (Some (Ok e)) r -> trace_rel r tr fin ->
    trace_rel bs ((Ok e, r) :: tr) fin
| TR_err bs e : next_rel bs (Some (Err e)) [] -> trace_rel bs [(Err e, [])] [].

Lemma run_char fuel : forall bs, (length bs < fuel)%nat ->
  exists tr fin, run fuel bs = Ret (tr, fin) /\ trace_rel bs tr fin.
Proof.
  induction fuel as [|f IH]; intros bs Hf; [lia|].
  cbn [run]. destruct (next_char bs) as (it & r & E & R). rewrite E. cbn [bind].
  destruct R as [Hnil | r0 Hend | e r Hlt Hcan Hw | e Hne Het Hsp].
  - exists [], []. split; [reflexivity|]. apply TR_stop. now left.
  - exists [], []. split; [reflexivity|]. apply TR_stop. right. eauto.
  - assert (Hr : (length r < f)%nat) by (rewrite !len_length in Hlt; lia).
    destruct (IH r Hr) as (tr & fin & E2 & T2). rewrite E2. cbn [bind fst snd].
    exists ((Ok e, r) :: tr), fin. split; [reflexivity|].
    apply TR_ok; [apply NR_ok; assumption | exact T2].
  - destruct f as [|f'].
    { destruct bs; [congruence | cbn [length] in Hf; lia]. }
    cbn [run]. rewrite next_nil. cbn [bind fst snd].
    exists [(Err e, [])], []. split; [reflexivity|]. apply TR_err. apply NR_err; assumption.
Qed.

Lemma iterate_char area : exists tr fin, iterate area = Ret (tr, fin) /\ trace_rel area tr fin.
Proof. unfold iterate. apply run_char. lia. Qed.

Lemma iterate_rel area tr fin : iterate area = Ret (tr, fin) -> trace_rel area tr fin.
Proof.
  intros H. destruct (iterate_char area) as (tr' & fin' & E & R).
  rewrite E in H. inversion H; subst. exact R.
Qed.

(* ---- consequences of trace_rel ---- *)
Lemma last_cons_default {A} (l : list A) : forall x d, last (x :: l) d = last l x.
Proof.
  induction l as [|y l IH]; intros x d; [reflexivity|].
  change (last (x :: y :: l) d) with (last (y :: l) d). rewrite !IH. reflexivity.
Qed.

Lemma last_rest_cons area p tr : last_rest area (p :: tr) = last_rest (snd p) tr.
Proof. unfold last_rest. cbn [map]. apply last_cons_default. Qed.

Lemma next_rel_ok_inv bs e r : next_rel bs (Some (Ok e)) r ->
  len r < len bs /\ canonical e /\ (bytes_ok bs -> bs = wire (to_opt e) ++ r /\ element_ok e).
Proof. intros H. inversion H; subst. auto. Qed.

Lemma next_rel_err_inv bs e r : next_rel bs (Some (Err e)) r -> r = [] /\ bs <> [] /\ err_true bs e.
Proof. intros H. inversion H; subst. auto. Qed.

Lemma tiles_lemma area tr fin : trace_rel area tr fin -> bytes_ok area ->
  forall pre post, tr = pre ++ post -> all_ok pre ->
    area = wire_list (map to_opt (elems_of pre)) ++ last_rest area pre
    /\ Forall element_ok (elems_of pre) /\ Forall canonical (elems_of pre).
Proof.
  induction 1 as [bs Hs | bs e r tr fin Hn Ht IH | bs e Hn]; intros Hok pre post Hsplit Hall.
  - destruct pre; [|discriminate]. cbn. auto.
  - destruct pre as [|p pre].
    { cbn. auto. }
    cbn [app] in Hsplit. inversion Hsplit; subst p tr.
    apply next_rel_ok_inv in Hn. destruct Hn as (Hlt & Hcan & Hw).
    destruct (Hw Hok) as [Hbs Heo].
    assert (Hokr : bytes_ok r).
    { rewrite Hbs in Hok. apply bytes_ok_app in Hok. tauto. }
    assert (Hall' : all_ok pre) by (inversion Hall; assumption).
    destruct (IH Hokr pre post eq_refl Hall') as (Ht1 & Ht2 & Ht3).
    rewrite last_rest_cons. cbn [snd elems_of map].
    unfold wire_list in *. cbn [map concat]. rewrite <- app_assoc. rewrite <- Ht1.
    repeat split; [exact Hbs | constructor; assumption | constructor; assumption].
  - destruct pre as [|p pre].
    { cbn. auto. }
    cbn [app] in Hsplit. inversion Hsplit; subst p.
    assert (Hp : is_ok (Err e, [])) by (inversion Hall; assumption).
    destruct Hp as [e' He']. discriminate.
Qed.

Lemma error_lemma area tr fin : trace_rel area tr fin ->
  forall pre e r post, tr = pre ++ (Err e, r) :: post ->
    all_ok pre /\ post = [] /\ r = [] /\ last_rest area pre <> [] /\ err_true (last_rest area pre) e.
Proof.
  induction 1 as [bs Hs | bs e0 r0 tr fin Hn Ht IH | bs e0 Hn]; intros pre e r post Hsplit.
  - destruct pre; discriminate.
  - destruct pre as [|p pre]; [discriminate|].
    cbn [app] in Hsplit. inversion Hsplit; subst p tr.
    destruct (IH pre e r post eq_refl) as (H1 & H2 & H3 & H4 & H5).
    rewrite last_rest_cons. cbn [snd].
    repeat split; try assumption. constructor; [|exact H1]. exists e0. reflexivity.
  - apply next_rel_err_inv in Hn. destruct Hn as (_ & Hne & Het).
    destruct pre as [|p pre].
    + cbn [app] in Hsplit. inversion Hsplit; subst.
      repeat split; try assumption. constructor.
    + cbn [app] in Hsplit. inversion Hsplit as [[Hp Hrest]]. destruct pre; discriminate.
Qed.

Lemma bounded_lemma area tr fin : trace_rel area tr fin ->
  (length tr <= length area)%nat /\
  (forall pre e r post, tr = pre ++ (Ok e, r) :: post -> len r < len (last_rest area pre)).
Proof.
  induction 1 as [bs Hs | bs e0 r0 tr fin Hn Ht IH | bs e0 Hn].
  - split; [cbn; lia|]. intros pre e r post H. destruct pre; discriminate.
  - apply next_rel_ok_inv in Hn. destruct Hn as (Hlt & _).
    destruct IH as [IH1 IH2]. split.
    + cbn [length]. rewrite !len_length in Hlt. lia.
    + intros pre e r post Hsplit. destruct pre as [|p pre].
      * cbn [app] in Hsplit. inversion Hsplit; subst. exact Hlt.
      * cbn [app] in Hsplit. inversion Hsplit; subst p tr.
        rewrite last_rest_cons. cbn [snd]. eapply IH2. reflexivity.
  - apply next_rel_err_inv in Hn. destruct Hn as (_ & Hne & _). split.
    + destruct bs; [congruence|]. cbn [length]. lia.
    + intros pre e r post Hsplit. destruct pre as [|p pre]; [discriminate|].
      cbn [app] in Hsplit. inversion Hsplit. destruct pre; discriminate.
Qed.

Lemma next_n_nil n : next_n n [] = Ret (repeat None n, []).
Proof.
  induction n as [|n IH]; [reflexivity|].
  cbn [next_n]. rewrite next_nil. cbn [bind snd fst]. rewrite IH. reflexivity.
Qed.

Lemma fin_lemma area tr fin : trace_rel area tr fin -> fin = [].
Proof. induction 1; auto. Qed.

(* why the iteration ended *)
Lemma stop_lemma area tr fin : trace_rel area tr fin ->
  last_rest area tr = [] \/ (exists r, last_rest area tr = 0 :: r).
Proof.
  induction 1 as [bs Hs | bs e0 r0 tr fin Hn Ht IH | bs e0 Hn].
  - exact Hs.
  - rewrite last_rest_cons. exact IH.
  - left. reflexivity.
Qed.

Lemma next_exhausts bs it r : next bs = Ret (it, r) ->
  (it = None \/ exists e, it = Some (Err e)) -> r = [].
Proof.
  intros E H. destruct (next_char bs) as (it' & r' & E' & R). rewrite E in E'.
  inversion E'; subst it' r'.
  destruct R; try reflexivity. destruct H as [H|[e' H]]; discriminate.
Qed.

Lemma next_wire e r : element_ok e -> next (wire (to_opt e) ++ r) = Ret (Some (Ok (compact e)), r).
Proof.
  intros Hok. destruct e as [|v|v| |[f0 f1] [[a b] c]|ta tb]; cbn [to_opt wire app compact].
  - apply next_noop.
  - unfold to_be16. cbn [app]. rewrite next_mss, be16_to_be16 by exact Hok. reflexivity.
  - apply next_wscale.
  - apply next_sack_perm.
  - cbn [element_ok] in Hok. destruct Hok as ([Hf0 Hf1] & Ha & Hb & Hc). cbn [fst snd] in *.
    unfold u32_ok in *.
    destruct a as [[a0 a1]|], b as [[b0 b1]|], c as [[c0 c1]|];
      cbn [ack_ok] in Ha, Hb, Hc; unfold block_ok, u32_ok in Ha, Hb, Hc; cbn [fst snd] in Ha, Hb, Hc;
      cbn [acks_list somes map concat]; unfold wire_block; cbn [fst snd].
    (* the octets are explicit: the blocks are read off by evaluation *)
    all: rewrite next_sack_ok; [ | reflexivity | unfold to_be32; cbn [app]; len_norm; lia ].
    all: cbv -[be_val N.div N.modulo].
    all: rewrite !be_val_4, !be32_to_be32 by tauto; reflexivity.
  - unfold to_be32. cbn [app]. rewrite next_ts, !be32_to_be32 by apply Hok. reflexivity.
Qed.

(* ---- zeros / take / drop helpers ---- *)
Lemma len_zeros n : len (zeros n) = n.
Proof. unfold zeros. rewrite len_repeat. lia. Qed.

Lemma zeros_split a b : zeros (a + b) = zeros a ++ zeros b.
Proof.
  unfold zeros. replace (N.to_nat (a + b)) with (N.to_nat a + N.to_nat b)%nat by lia.
  apply repeat_app.
Qed.

Lemma write_at_zeros buf pre n ln data :
  buf = pre ++ zeros n -> ln = len pre -> len data <= n ->
  write_at buf ln data = Ret ((pre ++ data) ++ zeros (n - len data)).
Proof.
  intros -> -> Hd. unfold write_at. rewrite len_app, len_zeros.
  destruct (N.leb_spec (len pre + len data) (len pre + n)); [|lia].
  rewrite take_app_exact.
  replace n with (len data + (n - len data)) at 1 by lia.
  rewrite zeros_split. rewrite (app_assoc pre (zeros (len data))).
  replace (len pre + len data) with (len (pre ++ zeros (len data))) by (rewrite len_app, len_zeros; reflexivity).
  rewrite drop_app_exact. rewrite <- app_assoc. reflexivity.
Qed.

(* ---- lengths ---- *)
Lemma sack_len_val w rest : 34 < w ->
  sack_len w rest = 10 + 8 * len (somes (acks_list rest)).
Proof.
  intros Hw. destruct rest as [[a b] c]. unfold sack_len.
  assert (M1 : (10 + 8) mod w = 18) by (apply N.mod_small; lia).
  assert (M2 : (18 + 8) mod w = 26) by (apply N.mod_small; lia).
  assert (M3 : (26 + 8) mod w = 34) by (apply N.mod_small; lia).
  destruct a, b, c; cbn [acks_list fold_left somes]; rewrite ?M1, ?M2, ?M3; reflexivity.
Qed.

Lemma len_wire_block b : len (wire_block b) = 8. Proof. reflexivity. Qed.

Lemma len_concat_blocks bl : len (concat (map wire_block bl)) = 8 * len bl.
Proof.
  induction bl as [|b bl IH]; [reflexivity|].
  cbn [map concat]. rewrite len_app, len_wire_block, IH, len_cons. lia.
Qed.

Lemma element_len_wire e : element_len e = len (wire (to_opt e)).
Proof.
  destruct e as [|v|v| |f rest|a b]; try reflexivity.
  cbn [element_len to_opt wire]. rewrite sack_len_val by (unfold USIZE; lia).
  rewrite len_app, len_concat_blocks. rewrite !len_cons, len_nil. lia.
Qed.

Lemma fold_add_shift (f : element -> N) els : forall a,
  fold_left (fun acc x => acc + f x) els a = a + fold_left (fun acc x => acc + f x) els 0.
Proof.
  induction els as [|e els IH]; intros a; cbn [fold_left]; [lia|].
  rewrite (IH (a + f e)), (IH (0 + f e)). lia.
Qed.

Lemma required_len_cons e els : required_len (e :: els) = element_len e + required_len els.
Proof.
  unfold required_len. cbn [fold_left]. rewrite fold_add_shift. lia.
Qed.

Lemma required_len_wire els : required_len els = len (wire_list (map to_opt els)).
Proof.
  induction els as [|e els IH]; [reflexivity|].
  rewrite required_len_cons, IH, element_len_wire. unfold wire_list. cbn [map concat].
  rewrite len_app. reflexivity.
Qed.

(* ---- writing ---- *)
(* the loop over the optional blocks of a SACK element writes the blocks that are present *)
Lemma write_acks l : forall pre n, 8 * len (somes l) <= n ->
  fold_left (fun (acc : M (bytes * N)) v =>
               st <- acc ;;
               let '(buf, ln) := st in
               match v with
               | None => Ret (buf, ln)
               | Some (a, b) => buf <- write_at buf ln (to_be32 a ++ to_be32 b) ;; Ret (buf, ln + 8)
               end) l (Ret (pre ++ zeros n, len pre)) =
  Ret ((pre ++ concat (map wire_block (somes l))) ++ zeros (n - 8 * len (somes l)), len pre + 8 * len (somes l)).
Proof.
  induction l as [|[[a b]|] l IH]; intros pre n Hn; cbn [somes] in Hn; cbn [fold_left somes map concat bind].
  - rewrite app_nil_r, N.sub_0_r, N.add_0_r. reflexivity.
  - rewrite len_cons in *.
    rewrite (write_at_zeros _ pre n _ _ eq_refl eq_refl) by (change (len (to_be32 a ++ to_be32 b)) with 8; lia).
    cbn [bind]. change (len (to_be32 a ++ to_be32 b)) with 8.
    replace (len pre + 8) with (len (pre ++ to_be32 a ++ to_be32 b)) by (rewrite len_app; reflexivity).
    rewrite IH by lia. rewrite len_app. change (len (to_be32 a ++ to_be32 b)) with 8.
    unfold wire_block at 2. cbn [fst snd]. rewrite <- !app_assoc.
    replace (n - 8 - 8 * len (somes l)) with (n - 8 * (1 + len (somes l))) by lia.
    replace (len pre + 8 + 8 * len (somes l)) with (len pre + 8 * (1 + len (somes l))) by lia.
    reflexivity.
  - apply IH. exact Hn.
Qed.

Lemma write_element_char e pre n :
  element_len e <= n ->
  write_element (pre ++ zeros n, len pre) e =
    Ret ((pre ++ wire (to_opt e)) ++ zeros (n - element_len e), len pre + element_len e).
Proof.
  intros Hn.
  destruct e as [|v|v| |[f0 f1] rest|ta tb]; cbn [write_element element_len to_opt wire] in *;
    unfold KIND_NOOP, KIND_MAXIMUM_SEGMENT_SIZE, KIND_WINDOW_SCALE,
      KIND_SELECTIVE_ACK_PERMITTED, KIND_SELECTIVE_ACK, KIND_TIMESTAMP.
  1-4, 6: (erewrite write_at_zeros; [ | reflexivity | reflexivity | ]; [reflexivity | exact Hn]).
  rewrite !sack_len_val in * by (unfold USIZE; lia).
  set (bl := somes (acks_list rest)) in *. cbn [fst snd].
  rewrite (write_at_zeros _ pre n _ _ eq_refl eq_refl)
    by (change (len (_ ++ _)) with 10; lia).
  cbn [bind]. change (len ([5; 10 + 8 * len bl] ++ to_be32 f0 ++ to_be32 f1)) with 10.
  replace (len pre + 10) with (len (pre ++ [5; 10 + 8 * len bl] ++ to_be32 f0 ++ to_be32 f1))
    by (rewrite len_app; reflexivity).
  rewrite write_acks by (fold bl; lia). fold bl. rewrite len_app.
  change (len ([5; 10 + 8 * len bl] ++ to_be32 f0 ++ to_be32 f1)) with 10.
  rewrite len_cons. replace (2 + 8 * (1 + len bl)) with (10 + 8 * len bl) by lia.
  cbn [map concat]. unfold wire_block at 2. cbn [fst snd].
  rewrite <- !app_assoc, N.sub_add_distr, N.add_assoc. reflexivity.
Qed.

Lemma write_elements_bind_fault els : forall (m : M (bytes * N)),
  (forall st, m <> Ret st) ->
  fold_left (fun acc e => st <- acc ;; write_element st e) els m = m.
Proof.
  induction els as [|e els IH]; intros m Hm; [reflexivity|].
  cbn [fold_left]. destruct m; try (apply IH; intros st; discriminate).
  exfalso. eapply Hm. reflexivity.
Qed.

Lemma write_elements_char els : forall pre n,
  required_len els <= n ->
  write_elements els (pre ++ zeros n, len pre) =
    Ret ((pre ++ wire_list (map to_opt els)) ++ zeros (n - required_len els),
         len pre + required_len els).
Proof.
  induction els as [|e els IH]; intros pre n Hn.
  - unfold write_elements, wire_list. cbn [fold_left map concat required_len].
    rewrite app_nil_r, N.sub_0_r, N.add_0_r. reflexivity.
  - rewrite required_len_cons in *. unfold write_elements in *. cbn [fold_left bind].
    assert (He : element_len e <= n) by lia. rewrite (write_element_char e pre n He).
    replace (len pre + element_len e) with (len (pre ++ wire (to_opt e)))
      by (rewrite len_app, element_len_wire; reflexivity).
    rewrite IH by lia. unfold wire_list. cbn [map concat].
    rewrite len_app, <- element_len_wire. rewrite <- !app_assoc.
    rewrite N.sub_add_distr, N.add_assoc. reflexivity.
Qed.

(* the two codes that round a length up to a multiple of four (try_from_elements,
   try_from_slice) and the data offset: u8 / usize arithmetic, evaluated for the 41 lengths
   that can occur *)
Definition round_len (ln : N) : N :=
  (if (0 <? ln) && negb (N.land ln 3 =? 0) then N.land ln U64_NOT_3 + 4 else ln) mod 256.

Definition slice_len_u8 (n : N) : N :=
  let ln := n mod 256 in
  (N.shiftl (N.shiftr ln 2) 2 mod 256 + (if negb (N.land ln 3 =? 0) then 4 else 0)) mod 256.

Definition upto40 : list N := map N.of_nat (seq 0 41).

Lemma in_upto40 n : n <= 40 -> In n upto40.
Proof.
  intros H. unfold upto40. apply in_map_iff. exists (N.to_nat n). split; [lia|].
  apply in_seq. lia.
Qed.

Lemma len40_sweep :
  forallb (fun n => (round_len n =? pad4 n) && (slice_len_u8 n =? pad4 n)
                    && ((5 + N.shiftr (pad4 n) 2) mod 256 =? 5 + pad4 n / 4)) upto40 = true.
Proof. vm_compute. reflexivity. Qed.

Lemma len40_facts n : n <= 40 ->
  round_len n = pad4 n /\ slice_len_u8 n = pad4 n /\ (5 + N.shiftr (pad4 n) 2) mod 256 = 5 + pad4 n / 4.
Proof.
  intros H. pose proof (proj1 (forallb_forall _ _) len40_sweep n (in_upto40 n H)) as P.
  cbv beta in P. rewrite !andb_true_iff, !N.eqb_eq in P. tauto.
Qed.

Lemma pad4_props n : n <= 40 -> n <= pad4 n /\ pad4 n <= 40 /\ pad4 n - n < 4 /\ pad4 n mod 4 = 0.
Proof.
  intros H. unfold pad4. rewrite N.mod_mul by discriminate.
  pose proof (N.div_mod (n + 3) 4 ltac:(discriminate)) as D.
  pose proof (N.mod_lt (n + 3) 4 ltac:(discriminate)) as M.
  set (q := (n + 3) / 4) in *. set (m := (n + 3) mod 4) in *. clearbody q m. lia.
Qed.

Lemma padding_zeros n : padding n = zeros (pad4 n - n).
Proof. reflexivity. Qed.

Lemma take_app_zeros (w : bytes) a b : a <= b ->
  take (len w + a) (w ++ zeros b) = w ++ zeros a.
Proof.
  intros H. replace b with (a + (b - a)) by lia. rewrite zeros_split, app_assoc.
  replace (len w + a) with (len (w ++ zeros a)) by (rewrite len_app, len_zeros; reflexivity).
  apply take_app_exact.
Qed.

Lemma next_zeros n : next (zeros n) = Ret (None, []).
Proof. unfold zeros. destruct (N.to_nat n); [reflexivity|apply next_end]. Qed.

Lemma run_wire els : forall tail fuel,
  Forall element_ok els -> (length els < fuel)%nat -> next tail = Ret (None, []) ->
  run fuel (wire_list (map to_opt els) ++ tail) = Ret (enc_trace els tail, []).
Proof.
  induction els as [|e els IH]; intros tail fuel Hok Hf Ht.
  - destruct fuel; [lia|]. unfold wire_list. cbn [map concat app run enc_trace]. rewrite Ht. reflexivity.
  - destruct fuel; [cbn [length] in Hf; lia|].
    inversion Hok as [|? ? He Hels]; subst.
    unfold wire_list. cbn [map concat run enc_trace]. rewrite <- app_assoc.
    rewrite next_wire by assumption. cbn [bind].
    fold (wire_list (map to_opt els)). rewrite IH; [reflexivity | assumption | cbn [length] in Hf; lia | assumption].
Qed.

Lemma wire_nonempty o : 1 <= len (wire o).
Proof. destruct o; cbn [wire app]; rewrite ?len_cons; lia. Qed.

Lemma length_le_wire os : N.of_nat (length os) <= len (wire_list os).
Proof.
  induction os as [|o os IH]; [cbn; lia|].
  unfold wire_list in *. cbn [map concat length]. rewrite len_app. pose proof (wire_nonempty o). lia.
Qed.

Lemma iterate_wire els tail : Forall element_ok els -> next tail = Ret (None, []) ->
  iterate (wire_list (map to_opt els) ++ tail) = Ret (enc_trace els tail, []).
Proof.
  intros Hok Ht. unfold iterate. apply run_wire; try assumption.
  rewrite app_length. pose proof (length_le_wire (map to_opt els)) as H.
  rewrite map_length in H. unfold len in H. lia.
Qed.

Lemma reject els : 40 < required_len els ->
  try_from_elements els = Ret (Err (NotEnoughSpace (required_len els))).
Proof.
  intros H. unfold try_from_elements, MAX_LEN. cbv zeta.
  destruct (N.ltb_spec 40 (required_len els)); [reflexivity|lia].
Qed.

Lemma from_slice_reject s : 40 < len s ->
  try_from_slice s = Ret (Err (NotEnoughSpace (len s))).
Proof.
  intros H. unfold try_from_slice, MAX_LEN.
  destruct (N.ltb_spec 40 (len s)); [reflexivity|lia].
Qed.

(* the value that holds a content of at most 40 octets: zero filled buffer, length rounded up
   to the next multiple of four; as_slice returns the content and its padding *)
Lemma try_from_slice_ok s : len s <= 40 ->
  try_from_slice s = Ret (Ok {| o_len := pad4 (len s); o_buf := s ++ zeros (40 - len s) |}).
Proof.
  intros H. unfold try_from_slice, MAX_LEN.
  destruct (N.ltb_spec 40 (len s)); [lia|].
  rewrite (write_at_zeros (zeros 40) [] 40 0 s eq_refl eq_refl H). cbn [bind app].
  fold (slice_len_u8 (len s)). destruct (len40_facts _ H) as (_ & -> & _). reflexivity.
Qed.

Lemma as_slice_padded c : len c <= 40 ->
  as_slice {| o_len := pad4 (len c); o_buf := c ++ zeros (40 - len c) |} = Ret (c ++ padding (len c)).
Proof.
  intros H. destruct (pad4_props _ H) as (P1 & P2 & P3 & P4).
  unfold as_slice. cbn [o_len o_buf]. rewrite len_app, len_zeros.
  destruct (N.leb_spec (pad4 (len c)) (len c + (40 - len c))); [|lia].
  rewrite padding_zeros.
  replace (pad4 (len c)) with (len c + (pad4 (len c) - len c)) at 1 by lia.
  rewrite take_app_zeros by lia. reflexivity.
Qed.

Definition accepted_options (els : list element) : tcp_options :=
  {| o_len := pad4 (len (wire_list (map to_opt els)));
     o_buf := wire_list (map to_opt els) ++ zeros (40 - len (wire_list (map to_opt els))) |}.

Lemma accept_any els : required_len els <= 40 ->
  try_from_elements els = Ret (Ok (accepted_options els)).
Proof.
  intros Hreq. unfold accepted_options. rewrite <- required_len_wire.
  unfold try_from_elements, MAX_LEN. cbv zeta.
  destruct (N.ltb_spec 40 (required_len els)); [lia|].
  rewrite (write_elements_char els [] 40 Hreq : write_elements els (zeros 40, 0) = _).
  cbn [bind app len length N.of_nat]. rewrite N.add_0_l.
  fold (round_len (required_len els)). destruct (len40_facts _ Hreq) as (-> & _). reflexivity.
Qed.

Lemma from_slice_ok s : len s <= 40 ->
  exists o, try_from_slice s = Ret (Ok o) /\ options_len o = pad4 (len s)
    /\ as_slice o = Ret (s ++ padding (len s)).
Proof.
  intros H. eexists. split; [apply try_from_slice_ok; exact H|].
  split; [reflexivity | apply as_slice_padded; exact H].
Qed.

Lemma enc_dec els : Forall element_ok els -> required_len els <= 40 ->
  exists o, try_from_elements els = Ret (Ok o)
    /\ options_len o = pad4 (required_len els)
    /\ required_len els = len (wire_list (map to_opt els))
    /\ as_slice o = Ret (wire_list (map to_opt els) ++ padding (required_len els))
    /\ elements_iterate o = Ret (enc_trace els (padding (required_len els)), []).
Proof.
  intros Hok Hreq. pose proof (accept_any els Hreq) as A.
  rewrite (required_len_wire els) in *. pose proof (as_slice_padded _ Hreq) as Hs.
  exists (accepted_options els). repeat split; try assumption.
  unfold elements_iterate, accepted_options. rewrite Hs. cbn [bind].
  apply iterate_wire; [assumption|]. rewrite padding_zeros. apply next_zeros.
Qed.

(* acceptance of an element list in RFC vocabulary, for every list: the required size is
   the length of the RFC encodings, the list is accepted exactly when that length is at
   most 40 and rejected with exactly that length otherwise *)
Lemma accept_iff els :
  let n := len (wire_list (map to_opt els)) in
  required_len els = n /\
  (n <= 40 -> try_from_elements els = Ret (Ok (accepted_options els))) /\
  (40 < n -> try_from_elements els = Ret (Err (NotEnoughSpace n))) /\
  ((exists o, try_from_elements els = Ret (Ok o)) <-> n <= 40) /\
  (forall r, try_from_elements els = Ret (Err (NotEnoughSpace r)) <-> 40 < n /\ r = n).
Proof.
  cbv zeta. rewrite <- (required_len_wire els).
  assert (Hacc : required_len els <= 40 -> try_from_elements els = Ret (Ok (accepted_options els)))
    by apply accept_any.
  assert (Hrej : 40 < required_len els ->
                 try_from_elements els = Ret (Err (NotEnoughSpace (required_len els))))
    by apply reject.
  split; [reflexivity|]. split; [exact Hacc|]. split; [exact Hrej|]. split.
  - split.
    + intros [o Ho]. destruct (N.le_gt_cases (required_len els) 40) as [H|H]; [exact H|].
      rewrite (Hrej H) in Ho. discriminate.
    + intros H. eexists. apply Hacc. exact H.
  - intros r. split.
    + intros Hr. destruct (N.le_gt_cases (required_len els) 40) as [H|H].
      * rewrite (Hacc H) in Hr. discriminate.
      * rewrite (Hrej H) in Hr. injection Hr as <-. split; [exact H|reflexivity].
    + intros [H ->]. apply Hrej. exact H.
Qed.

(* compaction *)
Lemma compact_canonical e : canonical e -> compact e = e.
Proof.
  destruct e as [|v|v| |f [[a b] c]|ta tb]; try reflexivity.
  cbn [canonical compact]. destruct a, b, c; cbn; intros H; try reflexivity; contradiction.
Qed.

Lemma compact_is_canonical e : canonical (compact e).
Proof.
  destruct e as [|v|v| |f [[a b] c]|ta tb]; try exact I.
  destruct a, b, c; exact I.
Qed.

Lemma compact_wire e : to_opt (compact e) = to_opt e.
Proof.
  destruct e as [|v|v| |f [[a b] c]|ta tb]; try reflexivity.
  destruct a, b, c; reflexivity.
Qed.

Lemma enc_trace_items els tail : map fst (enc_trace els tail) = map (fun e => Ok (compact e)) els.
Proof. induction els as [|e els IH]; [reflexivity|]. cbn [enc_trace map fst]. now rewrite IH. Qed.

Lemma enc_trace_last els tail : last_rest (wire_list (map to_opt els) ++ tail) (enc_trace els tail) = tail.
Proof.
  induction els as [|e els IH]; [reflexivity|].
  cbn [enc_trace]. rewrite last_rest_cons. cbn [snd]. exact IH.
Qed.

(* the statements used by Props/C13.v *)

Lemma data_offset_val o n : n <= 40 -> o_len o = pad4 n -> data_offset o = 5 + pad4 n / 4.
Proof. intros H E. unfold data_offset. rewrite E. apply (len40_facts n H). Qed.

Lemma c13_enc_dec : forall els, Forall element_ok els -> required_len els <= 40 ->
  exists o tr,
    try_from_elements els = Ret (Ok o)
    /\ options_len o = pad4 (required_len els)
    /\ data_offset o = 5 + pad4 (required_len els) / 4
    /\ required_len els = len (wire_list (map to_opt els))
    /\ as_slice o = Ret (wire_list (map to_opt els) ++ padding (required_len els))
    /\ elements_iterate o = Ret (tr, [])
    /\ map fst tr = map (fun e => Ok (compact e)) els
    /\ last_rest (wire_list (map to_opt els) ++ padding (required_len els)) tr
       = padding (required_len els).
Proof.
  intros els Hok Hreq. destruct (enc_dec els Hok Hreq) as (o & H1 & H2 & H3 & H4 & H5).
  exists o, (enc_trace els (padding (required_len els))).
  repeat split; try assumption.
  - apply data_offset_val; assumption.
  - apply enc_trace_items.
  - apply enc_trace_last.
Qed.

(* "yields the same elements" read literally: the iteration of the encoded list yields the
   SAME elements exactly when no SACK element has a hole *)
Lemma compact_fix_canonical e : compact e = e -> canonical e.
Proof. intros H. rewrite <- H. apply compact_is_canonical. Qed.

Lemma map_compact_same (els : list element) :
  map (fun e => @Ok element read_error (compact e)) els = map Ok els <-> Forall canonical els.
Proof.
  induction els as [|e els IH]; cbn [map].
  - split; [intros _; constructor | reflexivity].
  - split.
    + intros H. injection H as He Hr. constructor.
      * apply compact_fix_canonical. exact He.
      * apply IH. exact Hr.
    + intros H. inversion H as [|? ? Hc Hf]; subst.
      rewrite (compact_canonical e Hc). f_equal. apply IH. exact Hf.
Qed.

Lemma same_elements_iff_canonical els o tr fin :
  Forall element_ok els -> required_len els <= 40 ->
  try_from_elements els = Ret (Ok o) -> elements_iterate o = Ret (tr, fin) ->
  fin = [] /\ (map fst tr = map Ok els <-> Forall canonical els).
Proof.
  intros Hok Hreq Ho Htr.
  destruct (c13_enc_dec els Hok Hreq) as (o' & tr' & Ho' & _ & _ & _ & _ & Htr' & Hmap & _).
  rewrite Ho in Ho'. injection Ho' as <-.
  rewrite Htr in Htr'. injection Htr' as <- ->.
  split; [reflexivity|]. rewrite Hmap. apply map_compact_same.
Qed.

(* the literal reading "encoding then iterating yields the same elements" fails: a SACK
   element whose first optional block is absent and whose second is present *)
Definition sack_hole_els : list element :=
  [SelectiveAcknowledgement (1, 2) (None, Some (3, 4), None)].

Lemma sack_hole_ok : Forall element_ok sack_hole_els /\ required_len sack_hole_els <= 40.
Proof.
  split; [|vm_compute; discriminate].
  repeat constructor; cbn; unfold block_ok, u32_ok; cbn; lia.
Qed.

Lemma sack_hole_refuted :
  exists els o tr, Forall element_ok els /\ required_len els <= 40 /\
    try_from_elements els = Ret (Ok o) /\ elements_iterate o = Ret (tr, []) /\
    map fst tr <> map Ok els /\
    els = [SelectiveAcknowledgement (1, 2) (None, Some (3, 4), None)] /\
    map fst tr = [Ok (SelectiveAcknowledgement (1, 2) (Some (3, 4), None, None))].
Proof.
  exists sack_hole_els.
  eexists. eexists.
  split; [apply sack_hole_ok|]. split; [apply sack_hole_ok|].
  split; [vm_compute; reflexivity|].
  split; [vm_compute; reflexivity|].
  split; [vm_compute; discriminate|].
  split; reflexivity.
Qed.

Lemma c13_bounded : forall area, exists tr fin, iterate area = Ret (tr, fin)
  /\ (length tr <= length area)%nat
  /\ (forall pre e r post, tr = pre ++ (Ok e, r) :: post -> len r < len (last_rest area pre)).
Proof.
  intros area. destruct (iterate_char area) as (tr & fin & E & R).
  exists tr, fin. split; [exact E|]. eapply bounded_lemma; eassumption.
Qed.

Lemma c13_exhausted :
  (forall opts it o', next opts = Ret (it, o') ->
     (it = None \/ exists e, it = Some (Err e)) ->
     o' = [] /\ forall n, next_n n o' = Ret (repeat None n, []))
  /\ (forall area tr fin, iterate area = Ret (tr, fin) ->
     fin = [] /\ (forall n, next_n n fin = Ret (repeat None n, []))
     /\ (last_rest area tr = [] \/ exists r, last_rest area tr = 0 :: r)).
Proof.
  split.
  - intros opts it o' E H. assert (o' = []) by (eapply next_exhausts; eassumption).
    subst o'. split; [reflexivity|]. apply next_n_nil.
  - intros area tr fin E. apply iterate_rel in E.
    assert (fin = []) by (eapply fin_lemma; eassumption). subst fin.
    split; [reflexivity|]. split; [apply next_n_nil|]. eapply stop_lemma; eassumption.
Qed.

(* the executable reference decoder of Spec.v (the oracle of the correspondence
   run) gives the same answers as the model *)
(* the reference decoder on a well-formed option: kind, allowed length octet, body *)
Lemma spec_next_ok k l ls body r :
  k <> 0 -> k <> 1 -> known_lens k = Some ls -> mem l ls = true -> 2 + len body = l ->
  spec_next (k :: l :: body ++ r) = SOk (parse_body k body) r.
Proof.
  intros K0 K1 HK Hm Hl. unfold spec_next.
  apply N.eqb_neq in K0, K1. rewrite K0, K1, HK.
  change (rd (k :: l :: body ++ r) 1) with (Some l). cbv iota.
  assert (E : match ls with
              | [l0] => inl l0
              | _ => if mem l ls then @inl N N l else inr l
              end = inl l).
  { rewrite Hm. destruct ls as [|l0 [|l1 ls]]; try reflexivity.
    unfold mem in Hm. cbn [existsb] in Hm. rewrite orb_false_r in Hm. apply N.eqb_eq in Hm. now subst. }
  rewrite E.
  replace (len (k :: l :: body ++ r) <? l) with false
    by (symmetry; apply N.ltb_ge; rewrite !len_cons, len_app; lia).
  rewrite N.eqb_refl.
  change (drop 2 (k :: l :: body ++ r)) with (body ++ r).
  rewrite take_app_len by lia.
  change (k :: l :: body ++ r) with ((k :: l :: body) ++ r).
  rewrite drop_app_len by (rewrite !len_cons; lia). reflexivity.
Qed.

Lemma blocks_of_wire bl : Forall block_ok bl -> blocks_of (length bl) (concat (map wire_block bl)) = bl.
Proof.
  induction 1 as [|[x y] bl [Hx Hy] _ IH]; [reflexivity|].
  cbn [length blocks_of map concat]. unfold wire_block at 1 2 3. cbn [fst snd] in *.
  rewrite <- !app_assoc, (take_app_len (to_be32 x)) by reflexivity.
  rewrite (drop_app_len (to_be32 x) _ 4) by reflexivity. rewrite take_app_len by reflexivity.
  rewrite drop_app_len by reflexivity.
  rewrite !be_val_to_be32, IH by assumption. reflexivity.
Qed.

Lemma spec_next_wire e r : element_ok e -> spec_next (wire (to_opt e) ++ r) = SOk (to_opt e) r.
Proof.
  intros Hok. destruct e as [|v|v| |f [[a b] c]|ta tb]; cbn [to_opt wire app element_ok] in *.
  - reflexivity.
  - rewrite (spec_next_ok 2 4 [4]) by (reflexivity || discriminate).
    unfold parse_body, to_be16. change (2 =? 2) with true. cbv iota. rewrite be_val_2, be16_to_be16 by exact Hok. reflexivity.
  - change (3 :: 3 :: v :: r) with (3 :: 3 :: [v] ++ r). rewrite (spec_next_ok 3 3 [3] [v]) by (reflexivity || discriminate).
    unfold parse_body. change (3 =? 2) with false. change (3 =? 3) with true. cbv iota. rewrite be_val_1. reflexivity.
  - change (4 :: 2 :: r) with (4 :: 2 :: [] ++ r). rewrite (spec_next_ok 4 2 [2] []) by (reflexivity || discriminate). reflexivity.
  - destruct Hok as (Hf & Ha & Hb & Hc).
    rewrite (spec_next_ok 5 _ sack_lens); try (reflexivity || discriminate).
    + unfold parse_body. change (5 =? 2) with false. change (5 =? 3) with false. change (5 =? 4) with false.
      change (5 =? 5) with true. cbv iota.
      rewrite len_concat_blocks, N.mul_comm, N.div_mul by discriminate.
      unfold len. rewrite Nat2N.id, blocks_of_wire; [reflexivity|].
      constructor; [exact Hf|]. destruct a, b, c; cbn [acks_list somes]; repeat (apply Forall_cons; [assumption|]); apply Forall_nil.
    + destruct a, b, c; reflexivity.
    + rewrite len_concat_blocks. reflexivity.
  - rewrite (spec_next_ok 8 10 [10]) by (reflexivity || discriminate).
    unfold parse_body. change (8 =? 2) with false. change (8 =? 3) with false. change (8 =? 4) with false.
    change (8 =? 5) with false. cbv iota.
    change (take 4 (to_be32 ta ++ to_be32 tb)) with (to_be32 ta).
    change (drop 4 (to_be32 ta ++ to_be32 tb)) with (to_be32 tb).
    unfold u32_ok in Hok. rewrite !be_val_to_be32 by tauto. reflexivity.
Qed.

Lemma next_agrees bs : bytes_ok bs -> agrees (next bs) (spec_next bs).
Proof.
  intros Hok. destruct (next_char bs) as (it & r & E & R). rewrite E.
  destruct R as [Hnil | r0 Hend | e r Hlt Hcan Hw | e Hne Het Hsp]; cbn [agrees].
  - subst bs. split; reflexivity.
  - subst bs. split; reflexivity.
  - destruct (Hw Hok) as [Hbs Heo]. rewrite Hbs at 1. now apply spec_next_wire.
  - split; [assumption|reflexivity].
Qed.

Lemma spec_decode_trace bs tr fin : trace_rel bs tr fin -> bytes_ok bs ->
  forall fuel, (length bs < fuel)%nat -> spec_decode fuel bs = sitems_of tr.
Proof.
  induction 1 as [bs Hs | bs e r tr fin Hn Ht IH | bs e Hn]; intros Hok fuel Hf.
  - destruct fuel; [lia|]. cbn [spec_decode sitems_of].
    destruct Hs as [->|[r ->]]; reflexivity.
  - destruct fuel; [lia|]. cbn [spec_decode sitems_of].
    apply next_rel_ok_inv in Hn. destruct Hn as (Hlt & _ & Hw).
    destruct (Hw Hok) as [Hbs Heo].
    assert (Hokr : bytes_ok r) by (rewrite Hbs in Hok; apply bytes_ok_app in Hok; tauto).
    rewrite Hbs at 1. rewrite spec_next_wire by assumption.
    rewrite IH; [reflexivity | assumption | rewrite !len_length in Hlt; lia].
  - destruct fuel; [lia|]. cbn [spec_decode sitems_of].
    inversion Hn; subst. match goal with H : spec_next _ = _ |- _ => rewrite H end. reflexivity.
Qed.

