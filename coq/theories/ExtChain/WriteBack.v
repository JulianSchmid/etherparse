(* ExtChain/WriteBack.v -- decode then write: for every byte string that
   Ipv6Extensions::from_slice accepts, the decoded struct holds at every position
   the header decoded from the bytes of that position (slot-wise), satisfies the
   type invariant, and `write` re-emits exactly the consumed bytes with the
   reserved fields cleared (WalkView.normalise). *)
From EP Require Import Base.Bytes Base.Lists ExtChain.Spec ExtChain.Model ExtChain.View ExtChain.Proofs
  ExtChain.WalkSpec ExtChain.WalkView ExtChain.WalkProofs.
From Coq Require Import ZArith Lia ZifyN ZifyBool.
Local Open Scope N_scope.

(* ------------------------------------------------------------------ *)
(* one header: decode, invariant, re-encode *)

Lemma raw_item hb : bytes_ok hb -> (exists hl, rd hb 1 = Some hl /\ len hb = (hl + 1) * 8) ->
  exists h, raw_of_bytes hb = Some h /\ raw_valid h = true /\ raw_to_bytes h = Some hb
            /\ rd hb 0 = Some (r_next_header h).
Proof.
  intros OK (hl & R1 & LH).
  assert (HL : hl < 256) by (eapply rd_ok; eauto).
  destruct hb as [|b0 [|b1 p]]; try (rewrite ?len_cons, ?len_nil in LH; lia).
  change (rd (b0 :: b1 :: p) 1) with (Some b1) in R1. injection R1 as ->.
  assert (LP : len p = 6 + hl * 8) by (rewrite !len_cons in LH; lia).
  apply bytes_ok_cons in OK. destruct OK as [B0 OK]. apply bytes_ok_cons in OK. destruct OK as [_ OKP].
  unfold byte_ok in B0.
  exists (mkRaw b0 hl p). split; [reflexivity|]. split; [|split; [|reflexivity]].
  - unfold raw_valid. cbn [r_next_header r_header_length r_payload].
    apply N.ltb_lt in B0, HL. rewrite B0, HL, LP, N.eqb_refl. cbn [andb].
    apply bytes_okb_spec. exact OKP.
  - unfold raw_to_bytes, RAW_MAX_LEN. cbn [r_next_header r_header_length r_payload]. rewrite LP.
    destruct (2 + (6 + hl * 8) <=? 2048) eqn:X; [reflexivity|apply N.leb_gt in X; lia].
Qed.

(* fragment header: offset*8 + M re-encoded; the two reserved bits of byte 3 are lost *)
Lemma land_249 b : b < 256 -> N.land b 249 = b / 8 * 8 + (if N.odd b then 1 else 0).
Proof.
  assert (S : forallb (fun b => N.land b 249 =? b / 8 * 8 + (if N.odd b then 1 else 0))
                      (map N.of_nat (seq 0 256)) = true) by (vm_compute; reflexivity).
  intros H. rewrite forallb_forall in S. apply N.eqb_eq, S.
  apply in_map_iff. exists (N.to_nat b). split; [lia|]. apply in_seq. lia.
Qed.

Lemma fo_facts b2 b3 : b2 < 256 -> b3 < 256 ->
  let fo := (b2 * 256 + b3) / 8 in
  let w := N.lor ((N.shiftl fo 3) mod 65536) (if N.odd b3 then 1 else 0) in
  fo < 8192 /\ (w / 256) mod 256 = b2 /\ w mod 256 = N.land b3 249.
Proof.
  intros H2 H3 fo w. assert (F : fo < 8192) by (apply N.div_lt_upper_bound; lia).
  fold (fo_enc fo (N.odd b3)) in w. subst w. rewrite fo_enc_sum, land_249 by assumption.
  subst fo. split; [exact F|]. destruct (N.odd b3); split; dmlia.
Qed.

Lemma to_be32_of_be32 a b c d : a < 256 -> b < 256 -> c < 256 -> d < 256 -> to_be32 (be32 a b c d) = [a; b; c; d].
Proof.
  intros Ha Hb Hc Hd. unfold to_be32, be32.
  assert (E0 : (((a * 256 + b) * 256 + c) * 256 + d) mod 256 = d) by dmlia.
  assert (E1 : ((((a * 256 + b) * 256 + c) * 256 + d) / 256) mod 256 = c) by dmlia.
  assert (E2 : ((((a * 256 + b) * 256 + c) * 256 + d) / 65536) mod 256 = b) by dmlia.
  assert (E3 : ((((a * 256 + b) * 256 + c) * 256 + d) / 16777216) mod 256 = a) by dmlia.
  rewrite E0, E1, E2, E3. reflexivity.
Qed.

Lemma frag_item hb : bytes_ok hb -> len hb = 8 ->
  exists h, frag_of_bytes hb = Some h /\ frag_valid h = true /\ frag_to_bytes h = normalise (KFragment, hb)
            /\ rd hb 0 = Some (f_next_header h).
Proof.
  intros OK LH.
  destruct hb as [|b0 [|b1 [|b2 [|b3 [|b4 [|b5 [|b6 [|b7 [|b8 r]]]]]]]]]; try (rewrite ?len_cons, ?len_nil in LH; lia).
  unfold bytes_ok in OK.
  repeat (match goal with H : Forall _ (_ :: _) |- _ => inversion H; clear H; subst end).
  unfold byte_ok in *.
  destruct (fo_facts b2 b3 ltac:(assumption) ltac:(assumption)) as (F1 & F2 & F3). cbv zeta in *.
  eexists. split; [reflexivity|]. split; [|split; [|reflexivity]].
  - unfold frag_valid. cbn [f_next_header f_fragment_offset f_identification].
    assert (I : be32 b4 b5 b6 b7 < 4294967296) by (unfold be32; lia).
    rewrite !andb_true_iff, !N.ltb_lt. auto.
  - unfold frag_to_bytes, normalise. cbn [f_next_header f_fragment_offset f_more_fragments f_identification].
    rewrite to_be32_of_be32 by assumption. unfold to_be16. rewrite F2, F3. reflexivity.
Qed.

Lemma auth_item hb : bytes_ok hb -> (exists pl, rd hb 1 = Some pl /\ 1 <= pl /\ len hb = (pl + 2) * 4) ->
  exists h, auth_of_bytes hb = Some h /\ auth_valid h = true /\ auth_to_bytes h = Some (normalise (KAuth, hb))
            /\ rd hb 0 = Some (a_next_header h).
Proof.
  intros OK (pl & R1 & P & LH).
  assert (PL : pl < 256) by (eapply rd_ok; eauto).
  destruct hb as [|b0 [|b1 [|b2 [|b3 [|b4 [|b5 [|b6 [|b7 [|b8 [|b9 [|b10 [|b11 icv]]]]]]]]]]]];
    try (rewrite ?len_cons, ?len_nil in LH; lia).
  change (rd (b0 :: b1 :: b2 :: b3 :: b4 :: b5 :: b6 :: b7 :: b8 :: b9 :: b10 :: b11 :: icv) 1) with (Some b1) in R1.
  injection R1 as ->.
  set (k := pl - 1).
  assert (LI : len icv = k * 4) by (rewrite !len_cons in LH; unfold k; lia).
  unfold bytes_ok in OK.
  repeat (match goal with H : Forall _ (_ :: _) |- _ => inversion H; clear H; subst end).
  unfold byte_ok in *.
  eexists. split; [reflexivity|]. fold k. split; [|split; [|reflexivity]].
  - unfold auth_valid. cbn [a_next_header a_spi a_sequence_number a_raw_icv_len a_raw_icv].
    assert (I1 : be32 b4 b5 b6 b7 < 4294967296) by (unfold be32; lia).
    assert (I2 : be32 b8 b9 b10 b11 < 4294967296) by (unfold be32; lia).
    assert (I3 : k < 255) by (unfold k; lia).
    assert (BI : bytes_ok icv) by assumption.
    rewrite !andb_true_iff, !N.ltb_lt, N.eqb_eq, bytes_okb_spec. auto 10.
  - unfold auth_to_bytes, normalise. cbn [a_next_header a_spi a_sequence_number a_raw_icv_len a_raw_icv].
    destruct (k + 1 <? 256) eqn:X; [|apply N.ltb_ge in X; unfold k in X; lia].
    rewrite !to_be32_of_be32 by assumption. replace (k + 1) with pl by (unfold k; lia). reflexivity.
Qed.

(* ------------------------------------------------------------------ *)
Lemma decide_take_fresh seen n k : decide false seen n = DTake k -> has k seen = false.
Proof.
  intros H. apply decide_take_loop in H.
  destruct H as [(-> & _ & _ & H)|[(-> & _ & _ & H)|[(-> & _ & H)|[(-> & _ & H)|(-> & _ & H)]]]]; exact H.
Qed.

Lemma kind_eqb_eq a b : kind_eqb a b = true -> a = b.
Proof. destruct a, b; cbn; congruence. Qed.

Lemma kind_eqb_refl a : kind_eqb a a = true.
Proof. destruct a; reflexivity. Qed.

(* a position already met does not occur in the rest of the chain *)
Lemma chain_ok_fresh chain : forall seen n bs last rest st k,
  chain_ok false seen n bs chain last rest st -> has k seen = true -> lookup k chain = None.
Proof.
  induction chain as [|[k' hb] tl IH]; intros seen n bs last rest st k H S; [reflexivity|].
  cbn in H. destruct H as (D & nh & bs' & _ & _ & H). apply decide_take_fresh in D.
  cbn [lookup]. destruct (kind_eqb k k') eqn:E.
  - apply kind_eqb_eq in E. subst k'. congruence.
  - eapply IH; [exact H|]. rewrite has_cons, S. apply orb_true_r.
Qed.

(* ------------------------------------------------------------------ *)
(* every item of a walked chain decodes; its decoded header is valid and re-encodes *)
Definition item_ok (it : ext_kind * bytes) : Prop :=
  header_wf (fst it) (snd it) /\ bytes_ok (snd it) /\ 8 <= len (snd it).

Lemma chain_ok_items chain : forall start seen n bs last rest st,
  bytes_ok bs -> chain_ok start seen n bs chain last rest st -> Forall item_ok chain.
Proof.
  induction chain as [|[k hb] tl IH]; intros start seen n bs last rest st OK H; cbn in H.
  - constructor.
  - destruct H as (_ & nh & bs' & F & E & H). apply frame_framed in F. destruct F as (_ & L8 & _ & W).
    rewrite E in OK. apply bytes_ok_app in OK. destruct OK as [OKH OK'].
    constructor; [unfold item_ok; cbn; auto|]. eapply IH; eauto.
Qed.

Lemma raw_kind_item k hb : item_ok (k, hb) -> k <> KFragment -> k <> KAuth ->
  exists h, raw_of_bytes hb = Some h /\ raw_valid h = true /\ raw_to_bytes h = Some hb
            /\ rd hb 0 = Some (r_next_header h).
Proof.
  intros (W & OK & _) NF NA. cbn [fst snd] in *. apply raw_item; [exact OK|].
  destruct k; cbn [header_wf] in W; try exact W; congruence.
Qed.

Lemma item_decodes_ok it : item_ok it -> item_decodes it.
Proof.
  destruct it as [k hb]. intros I. unfold item_decodes. cbn [fst snd].
  destruct k.
  1,2,3,6: destruct (raw_kind_item _ hb I ltac:(discriminate) ltac:(discriminate)) as (h & -> & _); discriminate.
  - destruct I as (W & OK & _). cbn in W, OK. destruct (frag_item hb OK W) as (h & -> & _). discriminate.
  - destruct I as (W & OK & _). cbn in W, OK. destruct (auth_item hb OK W) as (h & -> & _). discriminate.
Qed.

(* ------------------------------------------------------------------ *)
(* slot-wise: the struct holds at position k the decode of the bytes of position k *)

Definition hdr_valid (h : hdr) : bool :=
  match h with HRaw h => raw_valid h | HFrag h => frag_valid h | HAuth h => auth_valid h end.

Lemma item_hdr k hb : item_ok (k, hb) -> exists h, hdr_of_bytes k hb = Some h /\ hdr_valid h = true.
Proof.
  intros I. unfold hdr_of_bytes. destruct k.
  1,2,3,6: destruct (raw_kind_item _ hb I ltac:(discriminate) ltac:(discriminate)) as (h & -> & V & _);
           exists (HRaw h); auto.
  - destruct I as (W & OK & _). cbn in W, OK. destruct (frag_item hb OK W) as (h & -> & V & _). exists (HFrag h). auto.
  - destruct I as (W & OK & _). cbn in W, OK. destruct (auth_item hb OK W) as (h & -> & V & _). exists (HAuth h). auto.
Qed.

(* storing a header at the position the slot rule takes changes that position only *)
Lemma put_slot seen e n k hb h : slots_agree seen e -> decide false seen n = DTake k ->
  hdr_of_bytes k hb = Some h ->
  (forall k', get_hdr (put e k h) k' = if kind_eqb k' k then Some h else get_hdr e k') /\
  (exts6_valid e = true -> hdr_valid h = true -> exts6_valid (put e k h) = true) /\
  hop_by_hop_options (put e k h) = hop_by_hop_options e.
Proof.
  intros SA D HB. sa_destruct SA. apply decide_take_loop in D. unfold hdr_of_bytes in HB.
  destruct D as [(-> & _ & R & X)|[(-> & _ & R & X)|[(-> & _ & X)|[(-> & _ & X)|(-> & _ & X)]]]];
    [destruct (raw_of_bytes hb)|destruct (raw_of_bytes hb)|destruct (raw_of_bytes hb)
    |destruct (frag_of_bytes hb)|destruct (auth_of_bytes hb)];
    try discriminate HB; injection HB as <-; cbn [put hdr_valid].
  2: rewrite SAr in R; destruct (routing e) as [rt|] eqn:ER; [|discriminate R].
  3: rewrite SAr in X; destruct (routing e) as [rt|] eqn:ER; [discriminate X|].
  all: (split; [intros k'; destruct k'; cbn; rewrite ?ER; reflexivity|split; [|reflexivity]]);
       unfold exts6_valid, routing_valid; cbn; rewrite ?ER; cbn; unfold routing_valid;
       rewrite !andb_true_iff; intros VE VH; rewrite VH; tauto.
Qed.

Lemma struct_slots chain : forall seen n bs last rest st e0,
  chain_ok false seen n bs chain last rest st -> Forall item_ok chain -> slots_agree seen e0 ->
  (forall k, get_hdr (struct_from e0 chain) k
             = match lookup k chain with Some hb => hdr_of_bytes k hb | None => get_hdr e0 k end)
  /\ (exts6_valid e0 = true -> exts6_valid (struct_from e0 chain) = true)
  /\ hop_by_hop_options (struct_from e0 chain) = hop_by_hop_options e0.
Proof.
  induction chain as [|[k' hb] tl IH]; intros seen n bs last rest st e0 H IT SA.
  { cbn. auto. }
  cbn in H. destruct H as (D & nh & bs' & _ & _ & H).
  inversion IT as [|? ? I IT']; subst.
  pose proof (chain_ok_fresh tl (k' :: seen) nh bs' last rest st k' H) as FR.
  rewrite has_cons, kind_eqb_refl in FR. specialize (FR eq_refl).
  destruct (item_hdr k' hb I) as (h & HB & VH).
  destruct (put_slot seen e0 n k' hb h SA D HB) as (PG & PV & PH).
  unfold struct_from in *. cbn [fold_left]. rewrite (place_put _ _ _ _ HB).
  destruct (IH _ _ _ _ _ _ _ H IT' (slots_agree_put _ _ _ _ _ _ SA D HB)) as (G & VV & HH).
  split; [|split].
  - intros k. rewrite G, PG. cbn [lookup]. destruct (kind_eqb k k') eqn:E; [|reflexivity].
    apply kind_eqb_eq in E. subst k. rewrite FR. symmetry. exact HB.
  - intros VE. apply VV, PV; assumption.
  - now rewrite HH.
Qed.

(* ------------------------------------------------------------------ *)
(* write_internal / next_header walk the decoded struct along the chain it was decoded from *)
Definition flags_of (tl : list (ext_kind * bytes)) : Flags :=
  mkFlags (is_some (lookup KHopByHop tl)) (is_some (lookup KDestOpts tl)) (is_some (lookup KRouting tl))
          (is_some (lookup KFragment tl)) (is_some (lookup KAuth tl)) (is_some (lookup KFinalDestOpts tl)).

Lemma normalised_cons it tl : normalised (it :: tl) = normalise it ++ normalised tl.
Proof. reflexivity. Qed.

Lemma chain_ok_no_hop chain : forall seen n bs last rest st,
  chain_ok false seen n bs chain last rest st -> lookup KHopByHop chain = None.
Proof.
  induction chain as [|[k hb] tl IH]; intros seen n bs last rest st H; [reflexivity|].
  cbn in H. destruct H as (D & nh & bs' & _ & _ & H). cbn [lookup].
  apply decide_take_loop in D.
  destruct D as [(-> & _)|[(-> & _)|[(-> & _)|[(-> & _)|(-> & _)]]]]; cbn [kind_eqb]; eapply IH; eauto.
Qed.

(* the flags along a decoded chain: set for the positions still to come *)
Lemma flag_flags_of tl k : flag (flags_of tl) k = is_some (lookup k tl).
Proof. destruct k; reflexivity. Qed.

Lemma flags_of_clr k hb tl : lookup k tl = None -> clr k (flags_of ((k, hb) :: tl)) = flags_of tl.
Proof.
  intros L. destruct k; unfold clr, clr_hop, clr_dst, clr_routing, clr_frag, clr_auth, clr_final, flags_of;
    cbn [lookup kind_eqb fl_hop_by_hop_options fl_destination_options fl_routing fl_fragment fl_auth
         fl_final_destination_options]; rewrite L; reflexivity.
Qed.

(* the position the slot rule takes is the one the loops of write / next_header select *)
Lemma sel_decide seen n k : decide false seen n = DTake k -> sel (has KRouting seen) n = Some k.
Proof.
  intros D. apply decide_take_loop in D.
  destruct D as [(-> & -> & R & _)|[(-> & -> & R & _)|[(-> & -> & _)|[(-> & -> & _)|(-> & -> & _)]]]];
    unfold sel; cbn; rewrite ?R; reflexivity.
Qed.

(* a position that holds the decode of a walked item links to the item's number and is written
   as the item with its reserved fields cleared *)
Lemma item_written e k hb nh : item_ok (k, hb) -> rd hb 0 = Some nh ->
  get_hdr e k = hdr_of_bytes k hb ->
  get_nh e k = Some nh /\ to_bytes_at e k = Some (normalise (k, hb)).
Proof.
  intros I R0 G. destruct k; cbn [get_hdr hdr_of_bytes get_nh to_bytes_at normalise] in *.
  all: try (destruct (raw_kind_item _ hb I ltac:(discriminate) ltac:(discriminate)) as (h & RB & _ & TB & R0');
            rewrite RB in G; cbn [option_map] in G).
  - destruct (hop_by_hop_options e); [|discriminate]. injection G as ->. cbn. split; [congruence|exact TB].
  - destruct (destination_options e); [|discriminate]. injection G as ->. cbn. split; [congruence|exact TB].
  - destruct (routing e) as [r|]; [|discriminate]. injection G as G. cbn. rewrite G. split; [congruence|exact TB].
  - destruct I as (W & OKH & _). cbn in W, OKH. destruct (frag_item hb OKH W) as (h & RB & _ & TB & R0').
    rewrite RB in G. destruct (fragment e); [|discriminate]. injection G as ->. split; [cbn; congruence|f_equal; exact TB].
  - destruct I as (W & OKH & _). cbn in W, OKH. destruct (auth_item hb OKH W) as (h & RB & _ & TB & R0').
    rewrite RB in G. destruct (auth e); [|discriminate]. injection G as ->. cbn. split; [congruence|exact TB].
  - destruct (routing e) as [r|]; [|discriminate].
    destruct (rt_final_destination_options r); [|discriminate]. injection G as ->. cbn. split; [congruence|exact TB].
Qed.

Lemma write_loop_walk fuel : forall tl e seen next bs last rest st w,
  chain_ok false seen next bs tl last rest st -> Forall item_ok tl ->
  (forall k hb, lookup k tl = Some hb -> get_hdr e k = hdr_of_bytes k hb) ->
  (free seen < fuel)%nat ->
  write_loop fuel e (flags_of tl) next (has KRouting seen) w = (w ++ normalised tl, Ok tt)
  /\ next_header_loop fuel e (flags_of tl) next (has KRouting seen) = Ok last.
Proof.
  induction fuel as [|fuel IH]; intros tl e seen next bs last rest st w H IT G FR; [lia|].
  destruct tl as [|[k hb] tl].
  { cbn in H. destruct H as (-> & _ & _). unfold normalised. cbn [map concat]. rewrite app_nil_r.
    cbn [write_loop next_header_loop].
    destruct (arm_of last), (has KRouting seen); split; reflexivity. }
  cbn in H. destruct H as (D & nh & bs' & F & _ & H).
  inversion IT as [|? ? I IT']; subst.
  pose proof (chain_ok_fresh tl (k :: seen) nh bs' last rest st k H) as FRK.
  rewrite has_cons, kind_eqb_refl in FRK. specialize (FRK eq_refl).
  apply frame_framed in F. destruct F as (_ & _ & R0 & _).
  assert (G' : forall k' hb', lookup k' tl = Some hb' -> get_hdr e k' = hdr_of_bytes k' hb').
  { intros k' hb' L. apply G. cbn [lookup]. destruct (kind_eqb k' k) eqn:E; [|exact L].
    apply kind_eqb_eq in E. subst k'. congruence. }
  specialize (G k hb). cbn [lookup] in G. rewrite kind_eqb_refl in G.
  destruct (item_written e k hb nh I R0 (G eq_refl)) as (GN & TB).
  destruct (IH tl e (k :: seen) nh bs' last rest st (w ++ normalise (k, hb)) H IT' G') as (IW & IN).
  { pose proof (free_take seen next k D). lia. }
  rewrite has_cons, orb_comm, kind_eqb_sym in IW, IN.
  rewrite write_loop_unfold, nh_loop_unfold, (sel_decide seen next k D), flag_flags_of.
  cbn [lookup]. rewrite kind_eqb_refl. cbn [is_some].
  rewrite GN, TB, (flags_of_clr k hb tl FRK), normalised_cons, app_assoc. split; assumption.
Qed.

(* ------------------------------------------------------------------ *)
Lemma lookup_in k c hb : lookup k c = Some hb -> In (k, hb) c.
Proof.
  induction c as [|[k' hb'] tl IH]; [discriminate|]. cbn [lookup].
  destruct (kind_eqb k k') eqn:E.
  - apply kind_eqb_eq in E. subst k'. intros H. injection H as ->. left. reflexivity.
  - intros H. right. auto.
Qed.

Lemma hdr_of_bytes_some k hb : item_ok (k, hb) -> is_some (hdr_of_bytes k hb) = true.
Proof.
  intros I. pose proof (item_decodes_ok _ I) as D. unfold item_decodes in D. cbn [fst snd] in D.
  destruct k; cbn [hdr_of_bytes].
  1,2,3,6: destruct (raw_of_bytes hb); [reflexivity|congruence].
  - destruct (frag_of_bytes hb); [reflexivity|congruence].
  - destruct (auth_of_bytes hb); [reflexivity|congruence].
Qed.

Lemma flags_init_of e c : slotwise e c -> Forall item_ok c -> flags_init e = flags_of c.
Proof.
  intros S IT.
  assert (P : forall k, is_some (get_hdr e k) = is_some (lookup k c)).
  { intros k. rewrite S. destruct (lookup k c) as [hb|] eqn:L; [|reflexivity].
    apply hdr_of_bytes_some. rewrite Forall_forall in IT. apply IT. apply lookup_in. exact L. }
  unfold flags_init, flags_of.
  rewrite <- (P KHopByHop), <- (P KDestOpts), <- (P KRouting), <- (P KFragment), <- (P KAuth), <- (P KFinalDestOpts).
  cbn [get_hdr]. rewrite !is_some_map.
  destruct (routing e) as [r|]; [rewrite is_some_map|]; reflexivity.
Qed.

Lemma chain_ok_start_irrelevant chain seen n bs last rest st : (n =? 0) = false ->
  chain_ok true seen n bs chain last rest st -> chain_ok false seen n bs chain last rest st.
Proof.
  intros E. pose proof (decide_start_irrelevant seen n E) as D.
  destruct chain as [|[k hb] tl]; cbn [chain_ok]; [|rewrite D; auto].
  unfold stop_ok. rewrite D. auto.
Qed.

(* decode then write, for every accepted byte string (also when the decoder stopped in front of a
   repeated header) *)
Theorem decode_then_write first bs : bytes_ok bs ->
  let w := ref_walk first bs in
  (w_stop w = SNonExt \/ w_stop w = SRefilled) ->
  let e := struct_of_chain (w_chain w) in
  exts6_valid e = true /\
  slotwise e (w_chain w) /\
  write e first = (normalised (w_chain w), Ok tt) /\
  next_header e first = Ok (w_next w).
Proof.
  intros OK w ST e0.
  assert (LF : (length bs < S (length bs))%nat) by lia.
  pose proof (walk_loop_sound (S (length bs)) true [] first bs LF) as CH. fold (ref_walk first bs) in CH. fold w in CH.
  pose proof (chain_ok_items _ _ _ _ _ _ _ _ OK CH) as IT.
  unfold e0, struct_of_chain. clear e0. clearbody w. destruct w as [chain last rest st]. cbn [w_chain w_next w_rest w_stop] in *.
  destruct (first =? 0) eqn:E0.
  - (* hop-by-hop options directly behind the IPv6 header *)
    assert (D : decide true [] first = DTake KHopByHop).
    { unfold decide. cbn [ip_number_of]. rewrite E0. reflexivity. }
    destruct chain as [|[k hb] tl].
    { cbn in CH. destruct CH as (_ & _ & S). unfold stop_ok in S. rewrite D in S.
      destruct ST as [-> | ->]; discriminate. }
    cbn in CH. destruct CH as (D' & nh & bs' & F & _ & CH). rewrite D in D'. injection D' as <-.
    inversion IT as [|? ? I IT']; subst.
    destruct (raw_kind_item _ hb I ltac:(discriminate) ltac:(discriminate)) as (h & RB & V & TB & R0').
    apply frame_framed in F. destruct F as (_ & _ & R0 & _).
    assert (NH : nh = r_next_header h) by congruence. subst nh.
    assert (EQ : struct_from exts6_default ((KHopByHop, hb) :: tl) = struct_from (set_hop exts6_default h) tl).
    { unfold struct_from. cbn [fold_left]. f_equal. unfold place. rewrite RB. reflexivity. }
    rewrite EQ. clear EQ.
    destruct (struct_slots tl [KHopByHop] _ _ _ _ _ (set_hop exts6_default h) CH IT' (slots_agree_hop h))
      as (G & VV & HH).
    pose proof (chain_ok_no_hop tl _ _ _ _ _ _ CH) as NOHOP.
    set (e := struct_from (set_hop exts6_default h) tl) in *.
    assert (SW : slotwise e ((KHopByHop, hb) :: tl)).
    { intros k. rewrite G. cbn [lookup]. destruct (kind_eqb k KHopByHop) eqn:E.
      - apply kind_eqb_eq in E. subst k. rewrite NOHOP. unfold hdr_of_bytes. rewrite RB. reflexivity.
      - destruct (lookup k tl); [reflexivity|]. destruct k; try discriminate; reflexivity. }
    split; [|split; [exact SW|]].
    { apply VV. unfold exts6_valid, set_hop. cbn. rewrite V. reflexivity. }
    assert (FI : clr_hop (flags_init e) = flags_of tl).
    { rewrite (flags_init_of e _ SW IT). unfold clr_hop, flags_of.
      cbn [lookup kind_eqb fl_destination_options fl_routing fl_fragment fl_auth fl_final_destination_options].
      rewrite NOHOP. reflexivity. }
    assert (G' : forall k hb', lookup k tl = Some hb' -> get_hdr e k = hdr_of_bytes k hb').
    { intros k hb' L. rewrite G, L. reflexivity. }
    assert (FR : (free [KHopByHop] < LOOP_FUEL)%nat) by (pose proof (free_le5 [KHopByHop]); unfold LOOP_FUEL; lia).
    destruct (write_loop_walk LOOP_FUEL tl e [KHopByHop] _ _ _ _ _ hb CH IT' G' FR) as (IW & IN).
    change (has KRouting [KHopByHop]) with false in IW, IN.
    unfold write, next_header, IPV6_HOP_BY_HOP. rewrite (N.eqb_sym 0 first), E0, HH.
    cbn [set_hop hop_by_hop_options]. rewrite TB, FI. split; [exact IW|exact IN].
  - apply chain_ok_start_irrelevant in CH; [|exact E0].
    destruct (struct_slots chain [] _ _ _ _ _ exts6_default CH IT slots_agree_default) as (G & VV & HH).
    set (e := struct_from exts6_default chain) in *.
    assert (SW : slotwise e chain).
    { intros k. rewrite G. destruct (lookup k chain); [reflexivity|]. destruct k; reflexivity. }
    split; [apply VV; reflexivity|]. split; [exact SW|].
    assert (G' : forall k hb', lookup k chain = Some hb' -> get_hdr e k = hdr_of_bytes k hb').
    { intros k hb' L. rewrite G, L. reflexivity. }
    assert (FR : (free [] < LOOP_FUEL)%nat) by (pose proof (free_le5 []); unfold LOOP_FUEL; lia).
    destruct (write_loop_walk LOOP_FUEL chain e [] _ _ _ _ _ [] CH IT G' FR) as (IW & IN).
    change (has KRouting []) with false in IW, IN.
    unfold write, next_header, IPV6_HOP_BY_HOP. rewrite (N.eqb_sym 0 first), E0.
    rewrite (flags_init_of e _ SW IT). split; [exact IW|exact IN].
Qed.
