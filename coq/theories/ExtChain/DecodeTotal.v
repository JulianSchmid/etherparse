(* ExtChain/DecodeTotal.v -- from_slice and from_slice_lax are total and never panic, and what
   they decode is written back as the bytes they consumed (from WalkProofs.v / WriteBack.v). *)
From EP Require Import Base.Bytes ExtChain.Spec ExtChain.Model ExtChain.View ExtChain.Proofs
  ExtChain.WalkSpec ExtChain.WalkView ExtChain.WalkProofs ExtChain.WriteBack.
From Coq Require Import ZArith Lia ZifyN ZifyBool.
Local Open Scope N_scope.

(* the struct of a walk, whatever made the walk stop (also the partial struct of from_slice_lax) *)
Lemma walk_struct first bs : bytes_ok bs ->
  let w := ref_walk first bs in
  slotwise (struct_of_chain (w_chain w)) (w_chain w) /\
  exts6_valid (struct_of_chain (w_chain w)) = true /\
  Forall item_decodes (w_chain w).
Proof.
  intros OK w.
  assert (LF : (length bs < S (length bs))%nat) by lia.
  pose proof (walk_loop_sound (S (length bs)) true [] first bs LF) as CH. cbv zeta in CH. fold (ref_walk first bs) in CH. fold w in CH.
  pose proof (chain_ok_items _ _ _ _ _ _ _ _ OK CH) as IT.
  split; [|split].
  3:{ eapply Forall_impl; [|exact IT]. apply item_decodes_ok. }
  all: unfold struct_of_chain; clearbody w; destruct w as [chain last rest st]; cbn [w_chain w_next w_rest w_stop] in *.
  all: destruct (first =? 0) eqn:E0.
  all: try (apply chain_ok_start_irrelevant in CH; [|exact E0];
            destruct (struct_slots chain [] _ _ _ _ _ exts6_default CH IT slots_agree_default) as (G & VV & HH)).
  2:{ intros k. rewrite G. destruct (lookup k chain); [reflexivity|]. destruct k; reflexivity. }
  3:{ apply VV. reflexivity. }
  all: destruct chain as [|[k hb] tl]; [cbn; try reflexivity; intros k; destruct k; reflexivity|].
  all: assert (D : decide true [] first = DTake KHopByHop) by (unfold decide; cbn [ip_number_of]; rewrite E0; reflexivity).
  all: cbn in CH; destruct CH as (D' & nh & bs' & F & _ & CH); rewrite D in D'; injection D' as <-.
  all: inversion IT as [|? ? I IT']; subst.
  all: destruct (raw_kind_item _ hb I ltac:(discriminate) ltac:(discriminate)) as (h & RB & V & TB & R0').
  all: assert (EQ : struct_from exts6_default ((KHopByHop, hb) :: tl) = struct_from (set_hop exts6_default h) tl)
         by (unfold struct_from; cbn [fold_left]; f_equal; unfold place; rewrite RB; reflexivity).
  all: rewrite EQ; clear EQ.
  all: destruct (struct_slots tl [KHopByHop] _ _ _ _ _ (set_hop exts6_default h) CH IT' (slots_agree_hop h))
         as (G & VV & HH).
  - pose proof (chain_ok_no_hop tl _ _ _ _ _ _ CH) as NOHOP.
    intros k. rewrite G. cbn [lookup]. destruct (kind_eqb k KHopByHop) eqn:E.
    + apply kind_eqb_eq in E. subst k. rewrite NOHOP. unfold hdr_of_bytes. rewrite RB. reflexivity.
    + destruct (lookup k tl); [reflexivity|]. destruct k; try discriminate; reflexivity.
  - apply VV. unfold exts6_valid, set_hop. cbn. rewrite V. reflexivity.
Qed.

(* at most six headers, each of at least 8 bytes: both termination measures *)
Lemma chain_ok_length chain : forall seen n bs last rest st,
  chain_ok false seen n bs chain last rest st -> (length chain <= free seen)%nat.
Proof.
  induction chain as [|[k hb] tl IH]; intros seen n bs last rest st H; [cbn; lia|].
  cbn in H. destruct H as (D & nh & bs' & _ & _ & H). apply IH in H. cbn [length].
  apply decide_take_loop in D.
  destruct D as [(-> & _ & R & X)|[(-> & _ & R & X)|[(-> & _ & R)|[(-> & _ & R)|(-> & _ & R)]]]];
    unfold free in *; rewrite ?has_cons in H; cbn [kind_eqb orb] in H;
    repeat match goal with E : has _ _ = _ |- _ => rewrite E in * end; cbn [fb] in *; lia.
Qed.

Lemma chain_ok_len8 chain : forall start seen n bs last rest st,
  chain_ok start seen n bs chain last rest st -> 8 * len chain <= len (concat (map snd chain)).
Proof.
  induction chain as [|[k hb] tl IH]; intros start seen n bs last rest st H; [cbn; lia|].
  cbn in H. destruct H as (_ & nh & bs' & F & _ & H). apply IH in H.
  apply frame_framed in F. destruct F as (_ & L8 & _).
  cbn [map snd concat]. rewrite len_app, len_cons. lia.
Qed.

Theorem from_slice_total first bs : bytes_ok bs ->
  let w := ref_walk first bs in
  from_slice first bs = strict_of_walk w /\
  from_slice_lax first bs = lax_of_walk w /\
  w_stop w <> SFuel /\
  chain_ok true [] first bs (w_chain w) (w_next w) (w_rest w) (w_stop w) /\
  bs = consumed w ++ w_rest w /\
  last_next first (w_chain w) = Some (w_next w) /\
  slotwise (struct_of_chain (w_chain w)) (w_chain w) /\
  exts6_valid (struct_of_chain (w_chain w)) = true /\
  len (w_chain w) <= 6 /\ 8 * len (w_chain w) <= len (consumed w).
Proof.
  intros OK w.
  assert (LF : (length bs < S (length bs))%nat) by lia.
  pose proof (walk_loop_sound (S (length bs)) true [] first bs LF) as CH. cbv zeta in CH. fold (ref_walk first bs) in CH. fold w in CH.
  destruct (walk_struct first bs OK) as (SW & V & _). fold w in SW, V.
  split; [exact (from_slice_walk first bs OK)|]. split; [exact (from_slice_lax_walk first bs OK)|].
  split; [intros E; rewrite E in CH; exact (chain_ok_not_fuel _ _ _ _ _ _ _ CH)|].
  split; [exact CH|]. split; [exact (chain_ok_split _ _ _ _ _ _ _ _ CH)|].
  split; [exact (chain_ok_last _ _ _ _ _ _ _ _ CH)|]. split; [exact SW|]. split; [exact V|].
  split; [|exact (chain_ok_len8 _ _ _ _ _ _ _ _ CH)].
  destruct (w_chain w) as [|[k hb] tl] eqn:EC; [cbn; lia|].
  cbn in CH. destruct CH as (D & nh & bs' & _ & _ & CH). apply chain_ok_length in CH.
  pose proof (free_le5 (k :: [])). rewrite len_cons. unfold len. lia.
Qed.

(* the explicit form: never Panic, never OutOfFuel; lax never fails and equals strict on success *)
Theorem from_slice_never_panics first bs : bytes_ok bs ->
  match from_slice first bs with
  | Ok (e, n, rest) => from_slice_lax first bs = Ok (e, n, rest, None)
  | Err x => exists e n rest l, from_slice_lax first bs = Ok (e, n, rest, Some (x, l))
  | Panic | OutOfFuel => False
  end.
Proof.
  intros OK. destruct (from_slice_total first bs OK) as (S & L & NF & _). rewrite S, L.
  unfold strict_of_walk, lax_of_walk, strict_from, lax_from.
  destruct (w_stop (ref_walk first bs)) as [| | |k x|]; try reflexivity; try (do 4 eexists; reflexivity).
  congruence.
Qed.

(* decode then write / next_header on the decoded struct *)
Theorem decode_any_then_write first bs e n rest : bytes_ok bs ->
  from_slice first bs = Ok (e, n, rest) ->
  let w := ref_walk first bs in
  e = struct_of_chain (w_chain w) /\ n = w_next w /\ rest = w_rest w /\
  bs = consumed w ++ rest /\
  write e first = (normalised (w_chain w), Ok tt) /\
  next_header e first = Ok n /\
  len (normalised (w_chain w)) = len (consumed w).
Proof.
  intros OK H w. destruct (from_slice_total first bs OK) as (S & _ & _ & CH & SP & _). fold w in S, CH, SP.
  rewrite S in H. unfold strict_of_walk, strict_from in H.
  assert (ST : w_stop w = SNonExt \/ w_stop w = SRefilled).
  { destruct (w_stop w); try discriminate; auto. }
  assert (R : Ok (struct_from exts6_default (w_chain w), w_next w, w_rest w) = Ok (e, n, rest) :> res hdr_slice_error _).
  { destruct ST as [E|E]; rewrite E in H; exact H. }
  injection R as <- <- <-.
  destruct (decode_then_write first bs OK ST) as (_ & _ & W & NH). fold w in W, NH.
  repeat split; try assumption.
  (* lengths: normalising keeps the length of every header *)
  unfold normalised, consumed. clear. induction (w_chain w) as [|[k hb] tl IH]; [reflexivity|].
  cbn [map concat snd]. rewrite !len_app, IH. f_equal.
  unfold normalise. destruct k; try reflexivity.
  - destruct hb as [|b0 [|b1 [|b2 [|b3 t]]]]; reflexivity.
  - destruct hb as [|b0 [|b1 [|b2 [|b3 t]]]]; reflexivity.
Qed.

(* ---- IPv4 ---- *)
Theorem from_slice4_total first bs : bytes_ok bs ->
  let w := ref_walk4 first bs in
  from_slice4 first bs = strict4_of_walk w /\
  from_slice_lax4 first bs = lax4_of_walk w /\
  w_stop w <> SFuel /\
  bs = consumed w ++ w_rest w /\
  last_next first (w_chain w) = Some (w_next w) /\
  exts4_valid (struct4_of_chain (w_chain w)) = true.
Proof.
  intros OK w. split; [exact (from_slice4_walk first bs OK)|]. split; [exact (from_slice_lax4_walk first bs OK)|].
  unfold w, ref_walk4. cbn [ip_number_of]. destruct (first =? 51) eqn:E.
  - destruct (frame_auth bs) as [hb nh rest'|x] eqn:F.
    + destruct (auth_slice_ok bs hb nh rest' OK F) as (h & A & _ & _ & _ & _ & _ & _ & V & _).
      apply frame_auth_framed in F. destruct F as (pl & _ & _ & _ & EB & _ & R0 & _).
      cbn [w_stop w_chain w_next w_rest consumed map snd concat last_next struct4_of_chain].
      rewrite app_nil_r, R0, A. split; [destruct (nh =? 51); discriminate|]. auto.
    + cbn. split; [discriminate|]. auto.
  - cbn. split; [discriminate|]. auto.
Qed.

Theorem decode_any_then_write4 first bs e n rest : bytes_ok bs ->
  from_slice4 first bs = Ok (e, n, rest) ->
  let w := ref_walk4 first bs in
  e = struct4_of_chain (w_chain w) /\ n = w_next w /\ rest = w_rest w /\
  bs = consumed w ++ rest /\
  write4 e first = (normalised (w_chain w), Ok tt) /\
  next_header4 e first = Ok n.
Proof.
  intros OK H w. destruct (from_slice4_total first bs OK) as (S & _ & _ & SP & _). fold w in S, SP.
  rewrite S in H. unfold w, ref_walk4, strict4_of_walk in *. cbn [ip_number_of] in *.
  destruct (first =? 51) eqn:E.
  - destruct (frame_auth bs) as [hb nh rest'|x] eqn:F.
    + destruct (auth_slice_ok bs hb nh rest' OK F) as (h & A & _ & _ & _ & _ & _ & _ & V & NH).
      apply frame_auth_framed in F. destruct F as (pl & R1 & _ & P & EB & LH & R0 & R1' & ET & _).
      assert (OKH : bytes_ok hb) by (rewrite ET; apply bytes_ok_take; exact OK).
      destruct (auth_item hb OKH (ex_intro _ pl (conj R1' (conj P LH)))) as (h' & A' & _ & TB & _).
      rewrite A in A'. injection A' as <-.
      cbn [w_stop w_chain w_next w_rest] in *.
      assert (R : Ok (struct4_of_chain [(KAuth, hb)], nh, rest') = Ok (e, n, rest) :> res auth_slice_error _)
        by (destruct (nh =? 51); exact H).
      injection R as <- <- <-. cbn [struct4_of_chain]. rewrite A.
      repeat split; try assumption.
      * unfold write4, AUTH. cbn [auth4]. rewrite (N.eqb_sym 51 first), E, TB.
        unfold normalised. cbn [map concat]. rewrite app_nil_r. reflexivity.
      * unfold next_header4. cbn [auth4]. unfold AUTH. rewrite E, NH. reflexivity.
    + cbn [w_stop] in H. discriminate.
  - cbn in H. injection H as <- <- <-. cbn. repeat split; try reflexivity.
Qed.
