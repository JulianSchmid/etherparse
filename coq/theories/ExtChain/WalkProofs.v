(* ExtChain/WalkProofs.v -- Ipv6Extensions::from_slice / from_slice_lax and
   Ipv4Extensions::from_slice / from_slice_lax of the model on ARBITRARY bytes:
   total (never Panic, never OutOfFuel) and equal to the reference walk of
   WalkSpec.v. *)
From EP Require Import Base.Bytes Base.Lists ExtChain.Spec ExtChain.Model ExtChain.View ExtChain.Proofs
  ExtChain.WalkSpec ExtChain.WalkView.
From Coq Require Import ZArith Lia ZifyN ZifyBool.
Local Open Scope N_scope.

(* ------------------------------------------------------------------ *)
(* lists *)
Lemma len_length {A} (l : list A) : len l = N.of_nat (length l).
Proof. reflexivity. Qed.

Lemma len_take_le {A} n (l : list A) : n <= len l -> len (take n l) = n.
Proof. intros H. rewrite len_take. lia. Qed.

Lemma bytes_ok_app_r (a b : bytes) : bytes_ok (a ++ b) -> bytes_ok b.
Proof. intros H. apply bytes_ok_app in H. tauto. Qed.

Lemma take_S_cons {A} n (a : A) l : 0 < n -> take n (a :: l) = a :: take (n - 1) l.
Proof.
  intros H. unfold take. replace (N.to_nat n) with (S (N.to_nat (n - 1))) by lia. reflexivity.
Qed.

Lemma drop_S_cons {A} n (a : A) l : 0 < n -> drop n (a :: l) = drop (n - 1) l.
Proof.
  intros H. unfold drop. replace (N.to_nat n) with (S (N.to_nat (n - 1))) by lia. reflexivity.
Qed.

(* ------------------------------------------------------------------ *)
(* framing *)
Lemma cut_framed n bs hb nh r : 0 < n -> cut n bs = Framed hb nh r ->
  bs = hb ++ r /\ len hb = n /\ rd hb 0 = Some nh /\ hb = take n bs /\ r = drop n bs /\ n <= len bs.
Proof.
  intros Hn. unfold cut. destruct (len bs <? n) eqn:L; [discriminate|]. apply N.ltb_ge in L.
  destruct bs as [|b0 t]; [discriminate|]. intros H. injection H as <- <- <-.
  split; [symmetry; apply take_drop|]. split; [apply len_take_le; exact L|].
  split; [rewrite rd_take_lt by lia; reflexivity|]. auto.
Qed.

Lemma cut_fault n bs x : cut n bs = Fault x -> 0 < n -> x = FLen n /\ len bs < n.
Proof.
  unfold cut. destruct (len bs <? n) eqn:L.
  - intros H _. injection H as <-. apply N.ltb_lt in L. auto.
  - apply N.ltb_ge in L. destruct bs as [|b0 t]; [|discriminate].
    intros _ H. rewrite len_nil in L. lia.
Qed.

Lemma frame_options_framed bs hb nh r : frame_options bs = Framed hb nh r ->
  exists hl, rd bs 1 = Some hl /\ 8 <= len bs /\
    bs = hb ++ r /\ len hb = (hl + 1) * 8 /\ rd hb 0 = Some nh /\ rd hb 1 = Some hl /\
    hb = take ((hl + 1) * 8) bs /\ r = drop ((hl + 1) * 8) bs /\ (hl + 1) * 8 <= len bs.
Proof.
  unfold frame_options. destruct (len bs <? 8) eqn:L; [discriminate|]. apply N.ltb_ge in L.
  destruct bs as [|b0 [|hl t]]; try discriminate. intros H.
  apply cut_framed in H; [|lia]. destruct H as (E & LH & R0 & ET & ED & LE).
  exists hl. split; [reflexivity|]. split; [exact L|]. split; [exact E|]. split; [exact LH|].
  split; [exact R0|]. split; [|auto]. rewrite ET. rewrite rd_take_lt by lia. reflexivity.
Qed.

Lemma frame_options_fault bs x : frame_options bs = Fault x ->
  (len bs < 8 /\ x = FLen 8) \/
  (exists hl, 8 <= len bs /\ rd bs 1 = Some hl /\ len bs < (hl + 1) * 8 /\ x = FLen ((hl + 1) * 8)).
Proof.
  unfold frame_options. destruct (len bs <? 8) eqn:L.
  - intros H. injection H as <-. apply N.ltb_lt in L. left. auto.
  - apply N.ltb_ge in L. destruct bs as [|b0 [|hl t]].
    + rewrite len_nil in L. lia.
    + rewrite len_cons, len_nil in L. lia.
    + intros H. apply cut_fault in H; [|lia]. destruct H as [-> H]. right. exists hl. auto.
Qed.

Lemma frame_auth_framed bs hb nh r : frame_auth bs = Framed hb nh r ->
  exists pl, rd bs 1 = Some pl /\ 12 <= len bs /\ 1 <= pl /\
    bs = hb ++ r /\ len hb = (pl + 2) * 4 /\ rd hb 0 = Some nh /\ rd hb 1 = Some pl /\
    hb = take ((pl + 2) * 4) bs /\ r = drop ((pl + 2) * 4) bs /\ (pl + 2) * 4 <= len bs.
Proof.
  unfold frame_auth. destruct (len bs <? 12) eqn:L; [discriminate|]. apply N.ltb_ge in L.
  destruct bs as [|b0 [|pl t]]; try discriminate.
  destruct (pl =? 0) eqn:P; [discriminate|]. apply N.eqb_neq in P. intros H.
  apply cut_framed in H; [|lia]. destruct H as (E & LH & R0 & ET & ED & LE).
  exists pl. split; [reflexivity|]. split; [exact L|]. split; [lia|]. split; [exact E|].
  split; [exact LH|]. split; [exact R0|]. split; [|auto]. rewrite ET. rewrite rd_take_lt by lia. reflexivity.
Qed.

Lemma frame_auth_fault bs x : frame_auth bs = Fault x ->
  (len bs < 12 /\ x = FLen 12) \/
  (12 <= len bs /\ rd bs 1 = Some 0 /\ x = FAuthZeroLen) \/
  (exists pl, 12 <= len bs /\ rd bs 1 = Some pl /\ 1 <= pl /\ len bs < (pl + 2) * 4 /\ x = FLen ((pl + 2) * 4)).
Proof.
  unfold frame_auth. destruct (len bs <? 12) eqn:L.
  - intros H. injection H as <-. apply N.ltb_lt in L. left. auto.
  - apply N.ltb_ge in L. destruct bs as [|b0 [|pl t]].
    + rewrite len_nil in L. lia.
    + rewrite len_cons, len_nil in L. lia.
    + destruct (pl =? 0) eqn:P.
      * apply N.eqb_eq in P. subst pl. intros H. injection H as <-. right. left. auto.
      * apply N.eqb_neq in P. intros H. apply cut_fault in H; [|lia]. destruct H as [-> H].
        right. right. exists pl. repeat split; auto. lia.
Qed.

Lemma frame_fragment_framed bs hb nh r : frame_fragment bs = Framed hb nh r ->
  8 <= len bs /\ bs = hb ++ r /\ len hb = 8 /\ rd hb 0 = Some nh /\ hb = take 8 bs /\ r = drop 8 bs.
Proof.
  unfold frame_fragment. intros H. apply cut_framed in H; [|lia].
  destruct H as (E & LH & R0 & ET & ED & LE). auto 10.
Qed.

Lemma frame_fragment_fault bs x : frame_fragment bs = Fault x -> len bs < 8 /\ x = FLen 8.
Proof. unfold frame_fragment. intros H. apply cut_fault in H; [|lia]. tauto. Qed.

(* every framed header: split of the input, at least 8 bytes, first byte handed on, length rule *)
Lemma frame_framed k bs hb nh r : frame k bs = Framed hb nh r ->
  bs = hb ++ r /\ 8 <= len hb /\ rd hb 0 = Some nh /\ header_wf k hb.
Proof.
  destruct k; cbn [frame header_wf]; intros H.
  1,2,3,6: apply frame_options_framed in H; destruct H as (hl & _ & _ & E & LH & R0 & R1 & _);
           (split; [exact E|]; split; [lia|]; split; [exact R0|]; exists hl; auto).
  - apply frame_fragment_framed in H. destruct H as (_ & E & LH & R0 & _). repeat split; auto. lia.
  - apply frame_auth_framed in H. destruct H as (pl & _ & _ & P & E & LH & R0 & R1 & _).
    split; [exact E|]. split; [lia|]. split; [exact R0|]. exists pl. auto.
Qed.

(* ------------------------------------------------------------------ *)
(* the reference walk: terminates by the bytes left, and says what chain_ok spells out *)
Lemma walk_loop_sound fuel : forall start seen n bs, (length bs < fuel)%nat ->
  let w := walk_loop fuel start seen n bs in
  chain_ok start seen n bs (w_chain w) (w_next w) (w_rest w) (w_stop w).
Proof.
  induction fuel as [|fuel IH]; intros start seen n bs Hf; [lia|].
  cbn [walk_loop]. destruct (decide start seen n) eqn:D; cbn; auto.
  destruct (frame k bs) as [hb nh bs'|x] eqn:F; cbn; auto.
  split; [exact D|]. exists nh, bs'. split; [exact F|].
  destruct (frame_framed k bs hb nh bs' F) as (E & L8 & _). split; [exact E|].
  apply IH. rewrite E in Hf. rewrite app_length in Hf. unfold len in L8. lia.
Qed.

Lemma chain_ok_not_fuel chain : forall start seen n bs last rest,
  chain_ok start seen n bs chain last rest SFuel -> False.
Proof.
  induction chain as [|[k hb] tl IH]; intros start seen n bs last rest H; cbn in H.
  - tauto.
  - destruct H as (_ & nh & bs' & _ & _ & H). eapply IH; eauto.
Qed.

Lemma chain_ok_split chain : forall start seen n bs last rest st,
  chain_ok start seen n bs chain last rest st -> bs = concat (map snd chain) ++ rest.
Proof.
  induction chain as [|[k hb] tl IH]; intros start seen n bs last rest st H; cbn in H.
  - cbn. tauto.
  - destruct H as (_ & nh & bs' & _ & E & H). apply IH in H. cbn [map snd concat].
    rewrite <- app_assoc, <- H. exact E.
Qed.

Lemma chain_ok_last chain : forall start seen n bs last rest st,
  chain_ok start seen n bs chain last rest st -> last_next n chain = Some last.
Proof.
  induction chain as [|[k hb] tl IH]; intros start seen n bs last rest st H; cbn in H.
  - cbn. destruct H as (-> & _). reflexivity.
  - destruct H as (_ & nh & bs' & F & _ & H). apply frame_framed in F. destruct F as (_ & _ & R0 & _).
    cbn [last_next]. rewrite R0. eapply IH; eauto.
Qed.

Lemma chain_ok_wf chain : forall start seen n bs last rest st,
  chain_ok start seen n bs chain last rest st ->
  Forall (fun it => header_wf (fst it) (snd it) /\ 8 <= len (snd it)) chain.
Proof.
  induction chain as [|[k hb] tl IH]; intros start seen n bs last rest st H; cbn in H.
  - constructor.
  - destruct H as (_ & nh & bs' & F & _ & H). apply frame_framed in F. destruct F as (_ & L8 & _ & W).
    constructor; [cbn; auto|]. eapply IH; eauto.
Qed.

(* the slot rule of the specification and the match arms of the model test the same numbers in
   the same order *)
Lemma decide_arm start seen n :
  decide start seen n =
  match arm_of n with
  | AHop => if start then DTake KHopByHop else DHopNotAtStart
  | ADest => if has KRouting seen
             then if has KFinalDestOpts seen then DRefilled else DTake KFinalDestOpts
             else if has KDestOpts seen then DRefilled else DTake KDestOpts
  | ARoute => if has KRouting seen then DRefilled else DTake KRouting
  | AFrag => if has KFragment seen then DRefilled else DTake KFragment
  | AAuth => if has KAuth seen then DRefilled else DTake KAuth
  | AOther => DNonExt
  end.
Proof.
  unfold decide, arm_of, IPV6_HOP_BY_HOP, IPV6_DEST_OPTIONS, IPV6_ROUTE, IPV6_FRAG, AUTH. cbn [ip_number_of].
  destruct (n =? 0); [reflexivity|]. destruct (n =? 60); [reflexivity|]. destruct (n =? 43); [reflexivity|].
  destruct (n =? 44); [reflexivity|]. destruct (n =? 51); reflexivity.
Qed.

(* once the number and every `has` are fixed, both sides of the four equivalences below are closed
   propositions about constructors *)
Local Ltac slot_arm :=
  (split; [|split; [|split; [|intros ?k]]]);
  (split; [intros H; try discriminate H; try (injection H as <-); intuition discriminate
          |intuition (discriminate || congruence)]).

(* the slot rule as equivalences, for both values of start *)
Theorem slot_rule_full start seen n :
  (decide start seen n = DNonExt <-> is_ext_number n = false) /\
  (decide start seen n = DHopNotAtStart <-> n = 0 /\ start = false) /\
  (decide start seen n = DRefilled <->
     (n = 60 /\ (has KRouting seen = true /\ has KFinalDestOpts seen = true
                 \/ has KRouting seen = false /\ has KDestOpts seen = true)) \/
     (n = 43 /\ has KRouting seen = true) \/ (n = 44 /\ has KFragment seen = true) \/
     (n = 51 /\ has KAuth seen = true)) /\
  (forall k, decide start seen n = DTake k <->
     (k = KHopByHop /\ n = 0 /\ start = true) \/
     (k = KDestOpts /\ n = 60 /\ has KRouting seen = false /\ has KDestOpts seen = false) \/
     (k = KFinalDestOpts /\ n = 60 /\ has KRouting seen = true /\ has KFinalDestOpts seen = false) \/
     (k = KRouting /\ n = 43 /\ has KRouting seen = false) \/
     (k = KFragment /\ n = 44 /\ has KFragment seen = false) \/
     (k = KAuth /\ n = 51 /\ has KAuth seen = false)).
Proof.
  rewrite decide_arm.
  destruct (arm_of_cases n) as [[A Nx]|[[A Nx]|[[A Nx]|[[A Nx]|[[A Nx]|[A Nx]]]]]]; rewrite A; clear A.
  1-5: subst n; unfold IPV6_HOP_BY_HOP, IPV6_DEST_OPTIONS, IPV6_ROUTE, IPV6_FRAG, AUTH.
  - destruct start; slot_arm.
  - destruct (has KRouting seen), (has KFinalDestOpts seen), (has KDestOpts seen); slot_arm.
  - destruct (has KRouting seen); slot_arm.
  - destruct (has KFragment seen); slot_arm.
  - destruct (has KAuth seen); slot_arm.
  - (* no extension number: n is none of the five constants *)
    (split; [|split; [|split; [|intros k]]]); (split; [intros H; try discriminate H; auto|intros H; try reflexivity]).
    all: exfalso; rewrite is_ext_number_false in Nx; destruct Nx as (N0 & N60 & N43 & N44 & N51).
    all: intuition (subst; discriminate).
Qed.

(* the number decided as non-extension is exactly a number outside the IANA list of the six positions *)
Lemma decide_nonext start seen n : decide start seen n = DNonExt <-> is_ext_number n = false.
Proof. apply slot_rule_full. Qed.

Lemma decide_hop start seen n : decide start seen n = DHopNotAtStart <-> (n = 0 /\ start = false).
Proof. apply slot_rule_full. Qed.

(* a refilled stop: the number is an extension header's, and its slot(s) are filled *)
Lemma decide_refilled start seen n : decide start seen n = DRefilled ->
  (n = 60 /\ (has KRouting seen = true /\ has KFinalDestOpts seen = true
              \/ has KRouting seen = false /\ has KDestOpts seen = true)) \/
  (n = 43 /\ has KRouting seen = true) \/ (n = 44 /\ has KFragment seen = true) \/
  (n = 51 /\ has KAuth seen = true).
Proof. apply slot_rule_full. Qed.

(* the slot rule inside the loop, case by case *)
Lemma decide_take_loop seen n k : decide false seen n = DTake k ->
  (k = KDestOpts /\ n = 60 /\ has KRouting seen = false /\ has KDestOpts seen = false) \/
  (k = KFinalDestOpts /\ n = 60 /\ has KRouting seen = true /\ has KFinalDestOpts seen = false) \/
  (k = KRouting /\ n = 43 /\ has KRouting seen = false) \/
  (k = KFragment /\ n = 44 /\ has KFragment seen = false) \/
  (k = KAuth /\ n = 51 /\ has KAuth seen = false).
Proof.
  intros H. apply slot_rule_full in H. destruct H as [(_ & _ & H)|H]; [discriminate|exact H].
Qed.

(* a taken position is free, and its IANA number is the announced one *)
Lemma decide_take start seen n k : decide start seen n = DTake k ->
  n = ip_number_of k /\ has k seen = false \/ (k = KHopByHop /\ start = true /\ n = 0).
Proof.
  intros H. apply slot_rule_full in H.
  destruct H as [(-> & -> & ->)|[(-> & -> & _ & H)|[(-> & -> & _ & H)|[(-> & -> & H)|[(-> & -> & H)|(-> & -> & H)]]]]];
    auto.
Qed.

(* ------------------------------------------------------------------ *)
(* the three header readers of the model against the framing of the specification *)

Lemma odd_land1 b : negb (N.land b 1 =? 0) = N.odd b.
Proof.
  change 1 with (N.ones 1). rewrite N.land_ones. change (2 ^ 1) with 2.
  rewrite <- N.bit0_mod, N.bit0_odd. destruct (N.odd b); reflexivity.
Qed.

Lemma shiftr3 x : N.shiftr x 3 = x / 8.
Proof. rewrite N.shiftr_div_pow2. reflexivity. Qed.

Lemma raw_bridge_ok wo slice rest hb nh rest' : bytes_ok rest ->
  frame_options rest = Framed hb nh rest' ->
  exists h, raw_of_bytes hb = Some h /\ read_raw wo slice rest = Ok (h, nh, rest') /\ raw_valid h = true
            /\ r_next_header h = nh /\ hb = r_next_header h :: r_header_length h :: r_payload h.
Proof.
  intros OK F. apply frame_options_framed in F.
  destruct F as (hl & R1 & L8 & E & LH & R0 & R1' & ET & ED & LE).
  assert (HL : hl < 256) by (eapply rd_ok; eauto).
  assert (OKH : bytes_ok hb) by (rewrite ET; apply bytes_ok_take; exact OK).
  destruct hb as [|b0 [|b1 p]]; try (rewrite ?len_cons, ?len_nil in LH; lia).
  change (rd (b0 :: b1 :: p) 0) with (Some b0) in R0. change (rd (b0 :: b1 :: p) 1) with (Some b1) in R1'.
  injection R0 as ->. injection R1' as ->.
  assert (LP : len p = 6 + hl * 8) by (rewrite !len_cons in LH; lia).
  exists (mkRaw nh hl p). split; [reflexivity|].
  assert (NH : nh < 256).
  { apply bytes_ok_cons in OKH. destruct OKH as [H _]. exact H. }
  assert (OKP : bytes_ok p).
  { apply bytes_ok_cons in OKH. destruct OKH as [_ H]. apply bytes_ok_cons in H. tauto. }
  split; [|split; [|split; reflexivity]].
  - unfold read_raw, raw_slice_from_slice.
    destruct (len rest <? 8) eqn:X; [apply N.ltb_lt in X; lia|]. rewrite R1.
    destruct (len rest <? (hl + 1) * 8) eqn:X2; [apply N.ltb_lt in X2; lia|].
    rewrite <- ET. unfold slice_from. rewrite LH.
    destruct ((hl + 1) * 8 <=? len rest) eqn:X3; [|apply N.leb_gt in X3; lia]. rewrite <- ED.
    unfold raw_slice_next_header. change (rd (nh :: hl :: p) 0) with (Some nh).
    unfold raw_slice_to_header, raw_slice_next_header, raw_slice_payload, usize_sub.
    change (rd (nh :: hl :: p) 0) with (Some nh). rewrite LH.
    destruct (2 <=? (hl + 1) * 8) eqn:X4; [|apply N.leb_gt in X4; lia].
    change (drop 2 (nh :: hl :: p)) with p.
    unfold raw_new_raw, RAW_MIN_PAYLOAD_LEN, RAW_MAX_PAYLOAD_LEN. rewrite LP.
    destruct (6 + hl * 8 <? 6) eqn:E1; [apply N.ltb_lt in E1; lia|].
    destruct (2046 <? 6 + hl * 8) eqn:E2; [apply N.ltb_lt in E2; lia|].
    assert (E3 : ((6 + hl * 8 + 2) mod 8 =? 0) = true).
    { apply N.eqb_eq. replace (6 + hl * 8 + 2) with ((hl + 1) * 8) by lia. apply N.mod_mul. lia. }
    rewrite E3. cbn [negb bind].
    assert (E4 : ((6 + hl * 8 - 6) / 8) mod 256 = hl).
    { replace (6 + hl * 8 - 6) with (hl * 8) by lia. rewrite N.div_mul by lia. apply N.mod_small. exact HL. }
    rewrite E4. reflexivity.
  - unfold raw_valid. cbn [r_next_header r_header_length r_payload].
    apply N.ltb_lt in NH, HL. rewrite NH, HL, LP, N.eqb_refl. cbn [andb].
    apply bytes_okb_spec. exact OKP.
Qed.

Definition err_off (wo : bool) (slice rest : bytes) : N := if wo then len slice - len rest else 0.

Lemma offset_err_ok wo slice rest e : len rest <= len slice ->
  offset_err wo slice rest e = Ok (add_offset e (err_off wo slice rest)).
Proof.
  intros H. unfold offset_err, err_off, usize_sub. destruct wo.
  - destruct (len rest <=? len slice) eqn:X; [reflexivity|apply N.leb_gt in X; lia].
  - unfold add_offset. destruct e. cbn. rewrite N.add_0_r. reflexivity.
Qed.

Lemma raw_bridge_fault wo slice rest x : len rest <= len slice ->
  frame_options rest = Fault x ->
  exists rq, x = FLen rq /\
    read_raw wo slice rest = Err (HLen (mkLenError rq (len rest) LIpv6ExtHeader (err_off wo slice rest))).
Proof.
  intros LS F. apply frame_options_fault in F. unfold read_raw, raw_slice_from_slice.
  destruct F as [[L ->]|(hl & L8 & R1 & L & ->)].
  - exists 8. split; [reflexivity|].
    destruct (len rest <? 8) eqn:X; [|apply N.ltb_ge in X; lia].
    rewrite offset_err_ok by exact LS. cbn [bind]. unfold add_offset. cbn [required_len le_len le_layer layer_start_offset].
    rewrite N.add_0_l. reflexivity.
  - exists ((hl + 1) * 8). split; [reflexivity|].
    destruct (len rest <? 8) eqn:X; [apply N.ltb_lt in X; lia|]. rewrite R1.
    destruct (len rest <? (hl + 1) * 8) eqn:X2; [|apply N.ltb_ge in X2; lia].
    rewrite offset_err_ok by exact LS. cbn [bind]. unfold add_offset. cbn [required_len le_len le_layer layer_start_offset].
    rewrite N.add_0_l. reflexivity.
Qed.

Lemma frag_bridge_ok slice rest hb nh rest' : bytes_ok rest ->
  frame_fragment rest = Framed hb nh rest' ->
  exists h, frag_of_bytes hb = Some h /\ read_frag slice rest = Ok (h, nh, rest') /\ frag_valid h = true
            /\ f_next_header h = nh.
Proof.
  intros OK F. apply frame_fragment_framed in F. destruct F as (L8 & E & LH & R0 & ET & ED).
  destruct rest as [|b0 [|b1 [|b2 [|b3 [|b4 [|b5 [|b6 [|b7 r]]]]]]]]; try (rewrite ?len_cons, ?len_nil in L8; lia).
  change (take 8 (b0 :: b1 :: b2 :: b3 :: b4 :: b5 :: b6 :: b7 :: r)) with [b0; b1; b2; b3; b4; b5; b6; b7] in ET.
  change (drop 8 (b0 :: b1 :: b2 :: b3 :: b4 :: b5 :: b6 :: b7 :: r)) with r in ED.
  subst hb rest'. change (rd [b0; b1; b2; b3; b4; b5; b6; b7] 0) with (Some b0) in R0. injection R0 as <-.
  exists (mkFrag b0 ((b2 * 256 + b3) / 8) (N.odd b3) (be32 b4 b5 b6 b7)).
  split; [reflexivity|]. split; [|split; [|reflexivity]].
  - unfold read_frag, frag_slice_from_slice.
    destruct (len (b0 :: b1 :: b2 :: b3 :: b4 :: b5 :: b6 :: b7 :: r) <? 8) eqn:X; [apply N.ltb_lt in X; lia|].
    change (take 8 (b0 :: b1 :: b2 :: b3 :: b4 :: b5 :: b6 :: b7 :: r)) with [b0; b1; b2; b3; b4; b5; b6; b7].
    unfold slice_from. change (len [b0; b1; b2; b3; b4; b5; b6; b7]) with 8.
    destruct (8 <=? len (b0 :: b1 :: b2 :: b3 :: b4 :: b5 :: b6 :: b7 :: r)) eqn:X2; [|apply N.leb_gt in X2; lia].
    change (drop 8 (b0 :: b1 :: b2 :: b3 :: b4 :: b5 :: b6 :: b7 :: r)) with r.
    rewrite rd0. unfold frag_slice_to_header. rewrite rd0, rd2, rd3, rd4, rd5, rd6, rd7. cbn [bind].
    rewrite shiftr3, odd_land1. reflexivity.
  - unfold bytes_ok in OK.
    repeat (match goal with H : Forall _ (_ :: _) |- _ => inversion H; clear H; subst end).
    unfold byte_ok in *.
    unfold frag_valid. cbn [f_next_header f_fragment_offset f_identification].
    assert (I : be32 b4 b5 b6 b7 < 4294967296) by (unfold be32; lia).
    assert (O : (b2 * 256 + b3) / 8 < 8192) by (apply N.div_lt_upper_bound; lia).
    rewrite !andb_true_iff, !N.ltb_lt. auto.
Qed.

Lemma frag_bridge_fault slice rest x : len rest <= len slice ->
  frame_fragment rest = Fault x ->
  x = FLen 8 /\
  read_frag slice rest = Err (HLen (mkLenError 8 (len rest) LIpv6FragHeader (len slice - len rest))).
Proof.
  intros LS F. apply frame_fragment_fault in F. destruct F as [L ->]. split; [reflexivity|].
  unfold read_frag, frag_slice_from_slice.
  destruct (len rest <? 8) eqn:X; [|apply N.ltb_ge in X; lia].
  rewrite offset_err_ok by exact LS. cbn [bind]. unfold add_offset, err_off. cbn [required_len le_len le_layer layer_start_offset].
  rewrite N.add_0_l. reflexivity.
Qed.

Lemma auth_slice_ok rest hb nh rest' : bytes_ok rest ->
  frame_auth rest = Framed hb nh rest' ->
  exists h, auth_of_bytes hb = Some h /\ auth_slice_from_slice rest = Ok hb /\
    (forall E, @auth_slice_to_header E hb = Ok h) /\ auth_slice_next_header hb = Some nh /\
    slice_from rest (len hb) = Some rest' /\ drop (len hb) rest = rest' /\ len hb <= len rest /\
    auth_valid h = true /\ a_next_header h = nh.
Proof.
  intros OK F. apply frame_auth_framed in F.
  destruct F as (pl & R1 & L12 & P & E & LH & R0 & R1' & ET & ED & LE).
  assert (PL : pl < 256) by (eapply rd_ok; eauto).
  assert (OKH : bytes_ok hb) by (rewrite ET; apply bytes_ok_take; exact OK).
  destruct hb as [|b0 [|b1 [|b2 [|b3 [|b4 [|b5 [|b6 [|b7 [|b8 [|b9 [|b10 [|b11 icv]]]]]]]]]]]];
    try (rewrite ?len_cons, ?len_nil in LH; lia).
  change (rd (b0 :: b1 :: b2 :: b3 :: b4 :: b5 :: b6 :: b7 :: b8 :: b9 :: b10 :: b11 :: icv) 0) with (Some b0) in R0.
  change (rd (b0 :: b1 :: b2 :: b3 :: b4 :: b5 :: b6 :: b7 :: b8 :: b9 :: b10 :: b11 :: icv) 1) with (Some b1) in R1'.
  injection R0 as ->. injection R1' as ->.
  set (k := pl - 1).
  assert (LI : len icv = k * 4) by (rewrite !len_cons in LH; unfold k; lia).
  exists (mkAuth nh (be32 b4 b5 b6 b7) (be32 b8 b9 b10 b11) k icv).
  split; [reflexivity|].
  set (hb := nh :: pl :: b2 :: b3 :: b4 :: b5 :: b6 :: b7 :: b8 :: b9 :: b10 :: b11 :: icv) in *.
  split; [|split; [|split; [reflexivity|split; [|split; [|split; [|split; [|reflexivity]]]]]]].
  - unfold auth_slice_from_slice, AUTH_MIN_LEN.
    destruct (len rest <? 12) eqn:X; [apply N.ltb_lt in X; lia|]. rewrite R1.
    destruct (pl <? 1) eqn:X1; [apply N.ltb_lt in X1; lia|].
    destruct (len rest <? (pl + 2) * 4) eqn:X2; [apply N.ltb_lt in X2; lia|].
    rewrite <- ET. reflexivity.
  - intros E0. unfold auth_slice_to_header. unfold hb.
    rewrite rd0, rd4, rd5, rd6, rd7, rd8, rd9, rd10, rd11.
    unfold slice_from. fold hb. rewrite LH.
    destruct (12 <=? (pl + 2) * 4) eqn:X; [|apply N.leb_gt in X; lia].
    change (drop 12 hb) with icv.
    unfold auth_new, AUTH_MAX_ICV_LEN. rewrite LI.
    destruct (1016 <? k * 4) eqn:E1; [apply N.ltb_lt in E1; unfold k in E1; lia|].
    assert (E2 : ((k * 4) mod 4 =? 0) = true) by (apply N.eqb_eq, N.mod_mul; lia).
    rewrite E2. cbn [negb].
    assert (E3 : (k * 4 / 4) mod 256 = k) by (rewrite N.div_mul by lia; apply N.mod_small; unfold k; lia).
    rewrite E3. reflexivity.
  - unfold slice_from. rewrite LH.
    destruct ((pl + 2) * 4 <=? len rest) eqn:X; [|apply N.leb_gt in X; lia]. rewrite ED. reflexivity.
  - rewrite LH. symmetry. exact ED.
  - rewrite LH. exact LE.
  - unfold hb, bytes_ok in OKH.
    repeat (match goal with H : Forall _ (_ :: _) |- _ => inversion H; clear H; subst end).
    unfold byte_ok in *.
    unfold auth_valid. cbn [a_next_header a_spi a_sequence_number a_raw_icv_len a_raw_icv].
    assert (I1 : be32 b4 b5 b6 b7 < 4294967296) by (unfold be32; lia).
    assert (I2 : be32 b8 b9 b10 b11 < 4294967296) by (unfold be32; lia).
    assert (I3 : k < 255) by (unfold k; lia).
    rewrite !andb_true_iff, !N.ltb_lt, N.eqb_eq, bytes_okb_spec. auto 10.
Qed.

Lemma auth_bridge_ok slice rest hb nh rest' : bytes_ok rest ->
  frame_auth rest = Framed hb nh rest' ->
  exists h, auth_of_bytes hb = Some h /\ read_auth slice rest = Ok (h, nh, rest') /\ auth_valid h = true
            /\ a_next_header h = nh.
Proof.
  intros OK F. destruct (auth_slice_ok rest hb nh rest' OK F) as (h & A & S & T & N & SF & _ & _ & V & NH).
  exists h. split; [exact A|]. split; [|auto].
  unfold read_auth. rewrite S, SF, N, T. reflexivity.
Qed.

Lemma auth_slice_fault rest x : frame_auth rest = Fault x ->
  auth_slice_from_slice rest =
    Err (match x with FLen rq => ALen (mkLenError rq (len rest) LIpAuthHeader 0) | FAuthZeroLen => AZeroPayloadLen end).
Proof.
  intros F. apply frame_auth_fault in F. unfold auth_slice_from_slice, AUTH_MIN_LEN.
  destruct F as [[L ->]|[(L & R1 & ->)|(pl & L & R1 & P & L2 & ->)]].
  - destruct (len rest <? 12) eqn:X; [reflexivity|apply N.ltb_ge in X; lia].
  - destruct (len rest <? 12) eqn:X; [apply N.ltb_lt in X; lia|]. rewrite R1. reflexivity.
  - destruct (len rest <? 12) eqn:X; [apply N.ltb_lt in X; lia|]. rewrite R1.
    destruct (pl <? 1) eqn:X1; [apply N.ltb_lt in X1; lia|].
    destruct (len rest <? (pl + 2) * 4) eqn:X2; [reflexivity|apply N.ltb_ge in X2; lia].
Qed.

Lemma auth_bridge_fault slice rest x : len rest <= len slice ->
  frame_auth rest = Fault x ->
  read_auth slice rest = Err (fault_error (len slice - len rest) (len rest) KAuth x).
Proof.
  intros LS F. unfold read_auth. rewrite (auth_slice_fault rest x F). destruct x as [rq|].
  - rewrite offset_err_ok by exact LS. cbn [bind]. unfold add_offset, err_off. cbn [required_len le_len le_layer layer_start_offset].
    rewrite N.add_0_l. reflexivity.
  - reflexivity.
Qed.

(* ------------------------------------------------------------------ *)
(* the decoder loop against the walk *)

(* the list of met positions against the struct under construction *)
Definition slots_agree (seen : list ext_kind) (e : Exts6) : Prop :=
  has KDestOpts seen = is_some (destination_options e) /\
  has KRouting seen = is_some (routing e) /\
  has KFinalDestOpts seen = has_final e /\
  has KFragment seen = is_some (fragment e) /\
  has KAuth seen = is_some (auth e).

(* termination measure of the model's `loop` (fuel LOOP_FUEL = 6): free positions *)
Definition fb (b : bool) : nat := if b then 0%nat else 1%nat.
Definition free (seen : list ext_kind) : nat :=
  (fb (has KDestOpts seen) + fb (has KRouting seen) + fb (has KFinalDestOpts seen)
   + fb (has KFragment seen) + fb (has KAuth seen))%nat.

Lemma free_le5 seen : (free seen <= 5)%nat.
Proof. unfold free, fb. repeat match goal with |- context[if ?b then _ else _] => destruct b end; lia. Qed.

Lemma consumed_cons k hb c n r s :
  consumed (mkWalk ((k, hb) :: c) n r s) = hb ++ consumed (mkWalk c n r s).
Proof. reflexivity. Qed.

Lemma strict_from_cons off e0 k hb w :
  strict_from off e0 (mkWalk ((k, hb) :: w_chain w) (w_next w) (w_rest w) (w_stop w))
  = strict_from (off + len hb) (place e0 (k, hb)) w.
Proof.
  unfold strict_from, consumed. cbn [w_stop w_chain w_next w_rest map snd concat struct_from fold_left].
  rewrite len_app, N.add_assoc. reflexivity.
Qed.

Lemma lax_from_cons off e0 k hb w :
  lax_from off e0 (mkWalk ((k, hb) :: w_chain w) (w_next w) (w_rest w) (w_stop w))
  = lax_from (off + len hb) (place e0 (k, hb)) w.
Proof.
  unfold lax_from, consumed. cbn [w_stop w_chain w_next w_rest map snd concat struct_from fold_left].
  rewrite len_app, N.add_assoc. reflexivity.
Qed.

Lemma has_final_set_routing e h : has_final (set_routing e (mkRouting h None)) = false.
Proof. reflexivity. Qed.

(* facts every continuing iteration hands to the induction hypothesis *)
Lemma step_facts (rest hb rest' slice : bytes) (fs : nat) :
  rest = hb ++ rest' -> 8 <= len hb -> bytes_ok rest -> len rest <= len slice ->
  (length rest < S fs)%nat ->
  bytes_ok rest' /\ len rest' <= len slice /\ (length rest' < fs)%nat /\
  len slice - len rest' = len slice - len rest + len hb /\ len rest' + 8 <= len rest.
Proof.
  intros -> L8 OK LS LF. rewrite len_app in *. rewrite app_length in LF. unfold len in *.
  split; [eapply bytes_ok_app_r; exact OK|]. lia.
Qed.

Lemma has_cons k k' seen : has k (k' :: seen) = kind_eqb k k' || has k seen.
Proof. reflexivity. Qed.

Ltac has_simpl := rewrite ?has_cons; cbn [kind_eqb orb].

Lemma is_some_none {A} (o : option A) : is_some o = false -> o = None.
Proof. destruct o; [discriminate|reflexivity]. Qed.

Ltac sa_destruct SA := destruct SA as (SAd & SAr & SAx & SAf & SAa).

(* ---- one position at a time: the reader of position k, and storing its header ---- *)

(* the slice reader for the header type of position k; [wo] only matters to read_raw *)
Definition read_at (k : ext_kind) (wo : bool) (slice rest : bytes) : res hdr_slice_error (hdr * N * bytes) :=
  match k with
  | KFragment => bind (read_frag slice rest) (fun '(h, nh, r) => Ok (HFrag h, nh, r))
  | KAuth => bind (read_auth slice rest) (fun '(h, nh, r) => Ok (HAuth h, nh, r))
  | _ => bind (read_raw wo slice rest) (fun '(h, nh, r) => Ok (HRaw h, nh, r))
  end.

(* what the decoders do with a header read for position k *)
Definition put (e : Exts6) (k : ext_kind) (h : hdr) : Exts6 :=
  match k, h with
  | KHopByHop, HRaw h => set_hop e h
  | KDestOpts, HRaw h => set_dst e h
  | KRouting, HRaw h => set_routing e (mkRouting h None)
  | KFinalDestOpts, HRaw h =>
    match routing e with Some r => set_routing e (mkRouting (rt_routing r) (Some h)) | None => e end
  | KFragment, HFrag h => set_frag e h
  | KAuth, HAuth h => set_auth e h
  | _, _ => e
  end.

Lemma place_put e k hb h : hdr_of_bytes k hb = Some h -> place e (k, hb) = put e k h.
Proof.
  unfold place, hdr_of_bytes, put.
  destruct k; [destruct (raw_of_bytes hb)|destruct (raw_of_bytes hb)|destruct (raw_of_bytes hb)
              |destruct (frag_of_bytes hb)|destruct (auth_of_bytes hb)|destruct (raw_of_bytes hb)];
    cbn [option_map]; intros [= <-]; reflexivity.
Qed.

Lemma read_at_framed k wo slice rest hb nh rest' : bytes_ok rest ->
  frame k rest = Framed hb nh rest' ->
  exists h, hdr_of_bytes k hb = Some h /\ read_at k wo slice rest = Ok (h, nh, rest').
Proof.
  intros OK F. destruct k; cbn [frame] in F; cbn [read_at hdr_of_bytes].
  1,2,3,6: destruct (raw_bridge_ok wo slice rest hb nh rest' OK F) as (h & -> & -> & _); exists (HRaw h); auto.
  - destruct (frag_bridge_ok slice rest hb nh rest' OK F) as (h & -> & -> & _). exists (HFrag h). auto.
  - destruct (auth_bridge_ok slice rest hb nh rest' OK F) as (h & -> & -> & _). exists (HAuth h). auto.
Qed.

(* without offset the reader is only used on the whole slice, where the offset is 0 anyway *)
Lemma read_at_fault k wo slice rest x : len rest <= len slice -> (wo = false -> slice = rest) ->
  frame k rest = Fault x ->
  read_at k wo slice rest = Err (fault_error (len slice - len rest) (len rest) k x).
Proof.
  intros LS W F. destruct k; cbn [frame] in F; cbn [read_at].
  1,2,3,6: destruct (raw_bridge_fault wo slice rest x LS F) as (rq & -> & ->); cbn [bind fault_error strict_layer];
           unfold err_off; destruct wo; [reflexivity|rewrite (W eq_refl), N.sub_diag; reflexivity].
  - destruct (frag_bridge_fault slice rest x LS F) as (-> & ->). reflexivity.
  - now rewrite (auth_bridge_fault slice rest x LS F).
Qed.

(* a taken position: one more slot agrees, one less is free *)
Lemma slots_agree_put seen e n k hb h : slots_agree seen e ->
  decide false seen n = DTake k -> hdr_of_bytes k hb = Some h ->
  slots_agree (k :: seen) (put e k h).
Proof.
  intros SA D HB. sa_destruct SA. apply decide_take_loop in D. unfold hdr_of_bytes in HB.
  destruct D as [(-> & _ & R & X)|[(-> & _ & R & X)|[(-> & _ & X)|[(-> & _ & X)|(-> & _ & X)]]]];
    [destruct (raw_of_bytes hb)|destruct (raw_of_bytes hb)|destruct (raw_of_bytes hb)
    |destruct (frag_of_bytes hb)|destruct (auth_of_bytes hb)];
    try discriminate HB; injection HB as <-; cbn [put].
  2: rewrite SAr in R; destruct (routing e) as [rt|] eqn:ER; [|discriminate R].
  3: rewrite SAr in X; destruct (routing e) as [rt|] eqn:ER; [discriminate X|].
  all: unfold slots_agree, has_final in *; has_simpl; cbn; rewrite ?ER in *; repeat split; assumption.
Qed.

Lemma free_take seen n k : decide false seen n = DTake k -> (free (k :: seen) < free seen)%nat.
Proof.
  intros D. apply decide_take_loop in D. unfold free.
  destruct D as [(-> & _ & _ & X)|[(-> & _ & _ & X)|[(-> & _ & X)|[(-> & _ & X)|(-> & _ & X)]]]];
    has_simpl; rewrite X; cbn [fb]; lia.
Qed.

(* a walk that stops on a fault, in the decoders' terms *)
Lemma strict_from_fault off e0 n rest k x :
  strict_from off e0 (mkWalk [] n rest (SFault k x)) = Err (fault_error off (len rest) k x).
Proof. unfold strict_from, consumed. cbn. now rewrite N.add_0_r. Qed.

Lemma lax_from_fault off e0 n rest k x :
  lax_from off e0 (mkWalk [] n rest (SFault k x))
  = Ok (e0, n, rest, Some (fault_error off (len rest) k x, lax_layer k)).
Proof. unfold lax_from, consumed. cbn. now rewrite N.add_0_r. Qed.

(* ---- one iteration of each decoder loop, by the slot rule ---- *)

Lemma from_slice_loop_step f slice e rest n seen : slots_agree seen e ->
  from_slice_loop (S f) slice e rest n =
  match decide false seen n with
  | DTake k => bind (read_at k true slice rest) (fun '(h, nh, rest') => from_slice_loop f slice (put e k h) rest' nh)
  | DHopNotAtStart => Err HHopByHopNotAtStart
  | DNonExt | DRefilled => Ok (e, n, rest)
  end.
Proof.
  intros SA. sa_destruct SA. rewrite decide_arm, SAr, SAd, SAx, SAf, SAa. cbn [from_slice_loop]. unfold has_final.
  destruct (arm_of n); try reflexivity.
  - destruct (routing e) as [rt|] eqn:ER; cbn [is_some].
    + destruct (is_some (rt_final_destination_options rt)); [reflexivity|].
      cbn [read_at put]. rewrite ER. destruct (read_raw true slice rest) as [[[h nh] r]| | |]; reflexivity.
    + destruct (is_some (destination_options e)); [reflexivity|].
      cbn [read_at]. destruct (read_raw true slice rest) as [[[h nh] r]| | |]; reflexivity.
  - destruct (is_some (routing e)); [reflexivity|].
    cbn [read_at]. destruct (read_raw true slice rest) as [[[h nh] r]| | |]; reflexivity.
  - destruct (is_some (fragment e)); [reflexivity|].
    cbn [read_at]. destruct (read_frag slice rest) as [[[h nh] r]| | |]; reflexivity.
  - destruct (is_some (auth e)); [reflexivity|].
    cbn [read_at]. destruct (read_auth slice rest) as [[[h nh] r]| | |]; reflexivity.
Qed.

Lemma from_slice_lax_loop_step f slice e rest n seen : slots_agree seen e ->
  from_slice_lax_loop (S f) slice e rest n =
  match decide false seen n with
  | DTake k =>
    match lax_of (read_at k true slice rest) with
    | LaxOk h nh rest' => from_slice_lax_loop f slice (put e k h) rest' nh
    | LaxErr x => Ok (e, n, rest, Some (x, lax_layer k))
    | LaxPanic => Panic
    end
  | DHopNotAtStart => Ok (e, n, rest, Some (HHopByHopNotAtStart, LIpv6HopByHopHeader))
  | DNonExt | DRefilled => Ok (e, n, rest, None)
  end.
Proof.
  intros SA. sa_destruct SA. rewrite decide_arm, SAr, SAd, SAx, SAf, SAa. cbn [from_slice_lax_loop]. unfold has_final.
  destruct (arm_of n); try reflexivity.
  - destruct (routing e) as [rt|] eqn:ER; cbn [is_some].
    + destruct (is_some (rt_final_destination_options rt)); [reflexivity|].
      cbn [read_at put]. rewrite ER. destruct (read_raw true slice rest) as [[[h nh] r]| | |]; reflexivity.
    + destruct (is_some (destination_options e)); [reflexivity|].
      cbn [read_at]. destruct (read_raw true slice rest) as [[[h nh] r]| | |]; reflexivity.
  - destruct (is_some (routing e)); [reflexivity|].
    cbn [read_at]. destruct (read_raw true slice rest) as [[[h nh] r]| | |]; reflexivity.
  - destruct (is_some (fragment e)); [reflexivity|].
    cbn [read_at]. destruct (read_frag slice rest) as [[[h nh] r]| | |]; reflexivity.
  - destruct (is_some (auth e)); [reflexivity|].
    cbn [read_at]. destruct (read_auth slice rest) as [[[h nh] r]| | |]; reflexivity.
Qed.

Lemma from_slice_loop_walk fm : forall fs slice result rest n seen,
  bytes_ok rest -> len rest <= len slice -> slots_agree seen result ->
  (free seen < fm)%nat -> (length rest < fs)%nat ->
  from_slice_loop fm slice result rest n
  = strict_from (len slice - len rest) result (walk_loop fs false seen n rest).
Proof.
  induction fm as [|fm IH]; intros fs slice result rest n seen OK LS SA FR LF; [lia|].
  destruct fs as [|fs]; [lia|].
  rewrite (from_slice_loop_step fm slice result rest n seen SA). cbn [walk_loop].
  destruct (decide false seen n) as [k| | |] eqn:D; try reflexivity.
  destruct (frame k rest) as [hb nh rest'|x] eqn:F.
  - destruct (read_at_framed k true slice rest hb nh rest' OK F) as (h & HB & RR).
    pose proof (frame_framed k rest hb nh rest' F) as (E & L8 & _).
    destruct (step_facts rest hb rest' slice fs E L8 OK LS LF) as (OK' & LS' & LF' & OFF & _).
    rewrite RR. cbn [bind]. rewrite strict_from_cons, (place_put _ _ _ _ HB), <- OFF.
    apply (IH fs slice _ rest' nh (k :: seen) OK' LS' (slots_agree_put _ _ _ _ _ _ SA D HB)); [|exact LF'].
    pose proof (free_take seen n k D). lia.
  - rewrite (read_at_fault k true slice rest x LS ltac:(discriminate) F). symmetry. apply strict_from_fault.
Qed.

Lemma from_slice_lax_loop_walk fm : forall fs slice result rest n seen,
  bytes_ok rest -> len rest <= len slice -> slots_agree seen result ->
  (free seen < fm)%nat -> (length rest < fs)%nat ->
  from_slice_lax_loop fm slice result rest n
  = lax_from (len slice - len rest) result (walk_loop fs false seen n rest).
Proof.
  induction fm as [|fm IH]; intros fs slice result rest n seen OK LS SA FR LF; [lia|].
  destruct fs as [|fs]; [lia|].
  rewrite (from_slice_lax_loop_step fm slice result rest n seen SA). cbn [walk_loop].
  destruct (decide false seen n) as [k| | |] eqn:D; try reflexivity.
  destruct (frame k rest) as [hb nh rest'|x] eqn:F.
  - destruct (read_at_framed k true slice rest hb nh rest' OK F) as (h & HB & RR).
    pose proof (frame_framed k rest hb nh rest' F) as (E & L8 & _).
    destruct (step_facts rest hb rest' slice fs E L8 OK LS LF) as (OK' & LS' & LF' & OFF & _).
    rewrite RR. cbn [lax_of]. rewrite lax_from_cons, (place_put _ _ _ _ HB), <- OFF.
    apply (IH fs slice _ rest' nh (k :: seen) OK' LS' (slots_agree_put _ _ _ _ _ _ SA D HB)); [|exact LF'].
    pose proof (free_take seen n k D). lia.
  - rewrite (read_at_fault k true slice rest x LS ltac:(discriminate) F). cbn [lax_of]. symmetry. apply lax_from_fault.
Qed.

(* ------------------------------------------------------------------ *)
(* Ipv6Extensions::from_slice / from_slice_lax on arbitrary bytes *)

Lemma decide_start_irrelevant seen n : (n =? 0) = false -> decide true seen n = decide false seen n.
Proof. intros H. unfold decide. cbn [ip_number_of]. rewrite H. reflexivity. Qed.

Lemma walk_loop_start_irrelevant fuel seen n bs : (n =? 0) = false ->
  walk_loop fuel true seen n bs = walk_loop fuel false seen n bs.
Proof.
  intros H. destruct fuel; [reflexivity|]. cbn [walk_loop]. rewrite (decide_start_irrelevant seen n H). reflexivity.
Qed.

Lemma slots_agree_default : slots_agree [] exts6_default.
Proof. unfold slots_agree. cbn. auto. Qed.

Lemma slots_agree_hop h : slots_agree [KHopByHop] (set_hop exts6_default h).
Proof. unfold slots_agree. cbn. auto. Qed.

Theorem from_slice_walk first bs : bytes_ok bs ->
  from_slice first bs = strict_of_walk (ref_walk first bs).
Proof.
  intros OK. unfold from_slice, ref_walk, strict_of_walk, IPV6_HOP_BY_HOP.
  rewrite (N.eqb_sym 0 first). destruct (first =? 0) eqn:E0.
  - cbn [walk_loop]. unfold decide. cbn [ip_number_of]. rewrite E0. cbn [frame].
    destruct (frame_options bs) as [hb nh rest'|x] eqn:F.
    + destruct (raw_bridge_ok false bs bs hb nh rest' OK F) as (h & RB & RR & V & NH & _).
      pose proof (frame_framed KHopByHop bs hb nh rest' F) as (E & L8 & _).
      assert (LF : (length bs < S (length bs))%nat) by lia.
      destruct (step_facts bs hb rest' bs (length bs) E L8 OK (N.le_refl _) LF) as (OK' & LS' & LF' & OFF & _).
      rewrite RR. cbn [bind]. rewrite strict_from_cons.
      rewrite (from_slice_loop_walk LOOP_FUEL (length bs) bs _ rest' nh [KHopByHop] OK' LS' (slots_agree_hop h)).
      * rewrite OFF, N.sub_diag. unfold place. rewrite RB. reflexivity.
      * pose proof (free_le5 [KHopByHop]). unfold LOOP_FUEL. lia.
      * exact LF'.
    + destruct (raw_bridge_fault false bs bs x (N.le_refl _) F) as (rq & -> & RR). rewrite RR.
      unfold strict_from, fault_error, consumed, err_off. cbn. reflexivity.
  - rewrite walk_loop_start_irrelevant by exact E0.
    rewrite (from_slice_loop_walk LOOP_FUEL (S (length bs)) bs exts6_default bs first [] OK (N.le_refl _)
               slots_agree_default).
    + rewrite N.sub_diag. reflexivity.
    + pose proof (free_le5 []). unfold LOOP_FUEL. lia.
    + lia.
Qed.

Theorem from_slice_lax_walk first bs : bytes_ok bs ->
  from_slice_lax first bs = lax_of_walk (ref_walk first bs).
Proof.
  intros OK. unfold from_slice_lax, ref_walk, lax_of_walk, IPV6_HOP_BY_HOP.
  rewrite (N.eqb_sym 0 first). destruct (first =? 0) eqn:E0.
  - cbn [walk_loop]. unfold decide. cbn [ip_number_of]. rewrite E0. cbn [frame].
    destruct (frame_options bs) as [hb nh rest'|x] eqn:F.
    + destruct (raw_bridge_ok false bs bs hb nh rest' OK F) as (h & RB & RR & V & NH & _).
      pose proof (frame_framed KHopByHop bs hb nh rest' F) as (E & L8 & _).
      assert (LF : (length bs < S (length bs))%nat) by lia.
      destruct (step_facts bs hb rest' bs (length bs) E L8 OK (N.le_refl _) LF) as (OK' & LS' & LF' & OFF & _).
      rewrite RR. cbn [lax_of]. rewrite lax_from_cons.
      rewrite (from_slice_lax_loop_walk LOOP_FUEL (length bs) bs _ rest' nh [KHopByHop] OK' LS' (slots_agree_hop h)).
      * rewrite OFF, N.sub_diag. unfold place. rewrite RB. reflexivity.
      * pose proof (free_le5 [KHopByHop]). unfold LOOP_FUEL. lia.
      * exact LF'.
    + destruct (raw_bridge_fault false bs bs x (N.le_refl _) F) as (rq & -> & RR). rewrite RR. cbn [lax_of].
      apply N.eqb_eq in E0. subst first.
      unfold lax_from, fault_error, consumed, err_off. cbn. reflexivity.
  - rewrite walk_loop_start_irrelevant by exact E0.
    rewrite (from_slice_lax_loop_walk LOOP_FUEL (S (length bs)) bs exts6_default bs first [] OK (N.le_refl _)
               slots_agree_default).
    + rewrite N.sub_diag. reflexivity.
    + pose proof (free_le5 []). unfold LOOP_FUEL. lia.
    + lia.
Qed.

(* ---- Ipv4Extensions ---- *)
Theorem from_slice4_walk first bs : bytes_ok bs ->
  from_slice4 first bs = strict4_of_walk (ref_walk4 first bs).
Proof.
  intros OK. unfold from_slice4, ref_walk4, strict4_of_walk, AUTH. cbn [ip_number_of].
  rewrite (N.eqb_sym 51 first). destruct (first =? 51) eqn:E; [|reflexivity].
  destruct (frame_auth bs) as [hb nh rest'|x] eqn:F.
  - destruct (auth_slice_ok bs hb nh rest' OK F) as (h & A & S & T & N & SF & _ & _ & V & NH).
    rewrite S. cbn [bind]. rewrite SF, N, T. cbn [bind].
    destruct (nh =? 51); cbn [w_stop w_chain w_next w_rest struct4_of_chain]; rewrite A; reflexivity.
  - rewrite (auth_slice_fault bs x F). cbn [bind w_stop w_rest]. destruct x; reflexivity.
Qed.

Theorem from_slice_lax4_walk first bs : bytes_ok bs ->
  from_slice_lax4 first bs = lax4_of_walk (ref_walk4 first bs).
Proof.
  intros OK. unfold from_slice_lax4, ref_walk4, lax4_of_walk, AUTH. cbn [ip_number_of].
  rewrite (N.eqb_sym 51 first). destruct (first =? 51) eqn:E; [|reflexivity].
  destruct (frame_auth bs) as [hb nh rest'|x] eqn:F.
  - destruct (auth_slice_ok bs hb nh rest' OK F) as (h & A & S & T & N & SF & DR & LE & V & NH).
    rewrite S. unfold usize_sub. destruct (len hb <=? len bs) eqn:X; [|apply N.leb_gt in X; lia].
    rewrite N, T. cbn [bind]. rewrite DR.
    destruct (nh =? 51); cbn [w_stop w_chain w_next w_rest struct4_of_chain]; rewrite A; reflexivity.
  - rewrite (auth_slice_fault bs x F). cbn [w_stop w_rest w_chain w_next struct4_of_chain].
    apply N.eqb_eq in E. subst first. destruct x; reflexivity.
Qed.
