(* ExtChain/Proofs.v -- the walkers over the six optional extension headers (property C12):
   the three header codecs, then Ipv6Extensions::next_header and ::write against the chain
   relation of ChainSpec.v -- both follow THE maximal chain of the header set from the first
   number and report its verdict -- and what follows from that: write and next_header agree,
   an error names a header that exists, the links set_next_headers sets are walked in RFC 8200
   order, from_slice reads back what write wrote. *)
From EP Require Import Base.Bytes Base.Lists ExtChain.Spec ExtChain.Model ExtChain.View
  ExtChain.WalkSpec ExtChain.ChainSpec ExtChain.ChainView ExtChain.Soundness.
From Coq Require Import ZArith Lia ZifyN ZifyBool Permutation.
Local Open Scope N_scope.

(* ------------------------------------------------------------------ *)
(* lists *)

Lemma rd0 a l : rd (a :: l) 0 = Some a. Proof. reflexivity. Qed.
Lemma rd1 a0 a l : rd (a0 :: a :: l) 1 = Some a. Proof. reflexivity. Qed.
Lemma rd2 a0 a1 a l : rd (a0 :: a1 :: a :: l) 2 = Some a. Proof. reflexivity. Qed.
Lemma rd3 a0 a1 a2 a l : rd (a0 :: a1 :: a2 :: a :: l) 3 = Some a. Proof. reflexivity. Qed.
Lemma rd4 a0 a1 a2 a3 a l : rd (a0 :: a1 :: a2 :: a3 :: a :: l) 4 = Some a. Proof. reflexivity. Qed.
Lemma rd5 a0 a1 a2 a3 a4 a l : rd (a0 :: a1 :: a2 :: a3 :: a4 :: a :: l) 5 = Some a. Proof. reflexivity. Qed.
Lemma rd6 a0 a1 a2 a3 a4 a5 a l : rd (a0 :: a1 :: a2 :: a3 :: a4 :: a5 :: a :: l) 6 = Some a. Proof. reflexivity. Qed.
Lemma rd7 a0 a1 a2 a3 a4 a5 a6 a l : rd (a0 :: a1 :: a2 :: a3 :: a4 :: a5 :: a6 :: a :: l) 7 = Some a. Proof. reflexivity. Qed.
Lemma rd8 a0 a1 a2 a3 a4 a5 a6 a7 a l : rd (a0 :: a1 :: a2 :: a3 :: a4 :: a5 :: a6 :: a7 :: a :: l) 8 = Some a. Proof. reflexivity. Qed.
Lemma rd9 a0 a1 a2 a3 a4 a5 a6 a7 a8 a l : rd (a0 :: a1 :: a2 :: a3 :: a4 :: a5 :: a6 :: a7 :: a8 :: a :: l) 9 = Some a. Proof. reflexivity. Qed.
Lemma rd10 a0 a1 a2 a3 a4 a5 a6 a7 a8 a9 a l : rd (a0 :: a1 :: a2 :: a3 :: a4 :: a5 :: a6 :: a7 :: a8 :: a9 :: a :: l) 10 = Some a. Proof. reflexivity. Qed.
Lemma rd11 a0 a1 a2 a3 a4 a5 a6 a7 a8 a9 a10 a l : rd (a0 :: a1 :: a2 :: a3 :: a4 :: a5 :: a6 :: a7 :: a8 :: a9 :: a10 :: a :: l) 11 = Some a. Proof. reflexivity. Qed.

Lemma slice_from_app (a b : bytes) : slice_from (a ++ b) (len a) = Some b.
Proof.
  unfold slice_from. rewrite len_app.
  destruct (len a <=? len a + len b) eqn:E; [|lia]. now rewrite drop_app_exact.
Qed.

Lemma is_some_map {A B} (f : A -> B) o : is_some (option_map f o) = is_some o.
Proof. destruct o; reflexivity. Qed.

(* ------------------------------------------------------------------ *)
(* which arm a number takes *)

Lemma is_ext_number_false n :
  is_ext_number n = false <->
  (n =? 0) = false /\ (n =? 60) = false /\ (n =? 43) = false /\ (n =? 44) = false /\ (n =? 51) = false.
Proof.
  unfold is_ext_number. cbn [map rfc8200_order ip_number_of existsb].
  rewrite !orb_false_iff. tauto.
Qed.

Lemma hop_eqb_other n : is_ext_number n = false -> (IPV6_HOP_BY_HOP =? n) = false.
Proof. rewrite is_ext_number_false. intros (H & _). rewrite N.eqb_sym. exact H. Qed.

Lemma arm_of_other n : is_ext_number n = false -> arm_of n = AOther.
Proof.
  rewrite is_ext_number_false. intros (H0 & H60 & H43 & H44 & H51).
  unfold arm_of, IPV6_HOP_BY_HOP, IPV6_DEST_OPTIONS, IPV6_ROUTE, IPV6_FRAG, AUTH.
  now rewrite H0, H60, H43, H44, H51.
Qed.

Lemma arm_of_cases n :
  (arm_of n = AHop /\ n = IPV6_HOP_BY_HOP) \/
  (arm_of n = ADest /\ n = IPV6_DEST_OPTIONS) \/
  (arm_of n = ARoute /\ n = IPV6_ROUTE) \/
  (arm_of n = AFrag /\ n = IPV6_FRAG) \/
  (arm_of n = AAuth /\ n = AUTH) \/
  (arm_of n = AOther /\ is_ext_number n = false).
Proof.
  unfold arm_of, IPV6_HOP_BY_HOP, IPV6_DEST_OPTIONS, IPV6_ROUTE, IPV6_FRAG, AUTH.
  destruct (n =? 0) eqn:E0; [left; split; [reflexivity|lia]|].
  destruct (n =? 60) eqn:E60; [right; left; split; [reflexivity|lia]|].
  destruct (n =? 43) eqn:E43; [right; right; left; split; [reflexivity|lia]|].
  destruct (n =? 44) eqn:E44; [right; right; right; left; split; [reflexivity|lia]|].
  destruct (n =? 51) eqn:E51; [right; right; right; right; left; split; [reflexivity|lia]|].
  right; right; right; right; right. split; [reflexivity|].
  apply is_ext_number_false. auto.
Qed.

Lemma arm_hop : arm_of IPV6_HOP_BY_HOP = AHop. Proof. reflexivity. Qed.
Lemma arm_dest : arm_of IPV6_DEST_OPTIONS = ADest. Proof. reflexivity. Qed.
Lemma arm_route : arm_of IPV6_ROUTE = ARoute. Proof. reflexivity. Qed.
Lemma arm_frag : arm_of IPV6_FRAG = AFrag. Proof. reflexivity. Qed.
Lemma arm_auth : arm_of AUTH = AAuth. Proof. reflexivity. Qed.

Lemma ext_hop : is_ext_number IPV6_HOP_BY_HOP = true. Proof. reflexivity. Qed.
Lemma ext_dest : is_ext_number IPV6_DEST_OPTIONS = true. Proof. reflexivity. Qed.
Lemma ext_route : is_ext_number IPV6_ROUTE = true. Proof. reflexivity. Qed.
Lemma ext_frag : is_ext_number IPV6_FRAG = true. Proof. reflexivity. Qed.
Lemma ext_auth : is_ext_number AUTH = true. Proof. reflexivity. Qed.

(* ------------------------------------------------------------------ *)
(* big-endian 32 bit *)

Lemma wire_u32_to_be32 v : v < 4294967296 -> to_be32 v = wire_u32 v.
Proof.
  intros Hv. unfold to_be32, wire_u32. f_equal.
  apply N.mod_small. apply N.div_lt_upper_bound; lia.
Qed.

(* ------------------------------------------------------------------ *)
(* the 16-bit word of a fragment header: offset in the upper 13 bits, M in bit 0 *)

Definition fo_enc (off : N) (more : bool) : N :=
  N.lor ((N.shiftl off 3) mod 65536) (if more then 1 else 0).

Lemma lor_double_1 a : N.lor (2 * a) 1 = 2 * a + 1.
Proof. destruct a; reflexivity. Qed.

(* no bit of off * 8 meets bit 0, so the `or` is a sum *)
Lemma fo_enc_sum off more : off < 8192 -> fo_enc off more = off * 8 + (if more then 1 else 0).
Proof.
  intros H. unfold fo_enc. rewrite N.shiftl_mul_pow2. change (2 ^ 3) with 8.
  rewrite N.mod_small by lia.
  destruct more; [|now rewrite N.lor_0_r, N.add_0_r].
  replace (off * 8) with (2 * (off * 4)) by lia. apply lor_double_1.
Qed.

Lemma fo_enc_decode off more : off < 8192 ->
  N.shiftr (be16 ((fo_enc off more / 256) mod 256) (fo_enc off more mod 256)) 3 = off /\
  negb (N.land (fo_enc off more mod 256) 1 =? 0) = more.
Proof.
  intros H. rewrite fo_enc_sum by assumption. unfold be16.
  rewrite N.shiftr_div_pow2. change (2 ^ 3) with 8.
  change (N.land ?a 1) with (N.land a (N.ones 1)). rewrite N.land_ones. change (2 ^ 1) with 2.
  split; [destruct more; dmlia|].
  destruct more;
    [replace (((off * 8 + 1) mod 256) mod 2) with 1 by dmlia
    |replace (((off * 8 + 0) mod 256) mod 2) with 0 by dmlia]; reflexivity.
Qed.

(* ------------------------------------------------------------------ *)
(* the three header codecs: to_bytes then from_slice gives the header back *)

Lemma raw_valid_inv h : raw_valid h = true ->
  r_next_header h < 256 /\ r_header_length h < 256 /\
  len (r_payload h) = 6 + r_header_length h * 8 /\ bytes_ok (r_payload h).
Proof.
  unfold raw_valid. rewrite !andb_true_iff, bytes_okb_spec, !N.ltb_lt, N.eqb_eq. tauto.
Qed.

Lemma raw_to_bytes_valid h : raw_valid h = true ->
  raw_to_bytes h = Some (r_next_header h :: r_header_length h :: r_payload h).
Proof.
  intros V. apply raw_valid_inv in V. destruct V as (_ & Hl & Hp & _).
  unfold raw_to_bytes, RAW_MAX_LEN. destruct (2 + len (r_payload h) <=? 2048) eqn:E; [reflexivity|lia].
Qed.

Lemma raw_to_bytes_len h bs : raw_valid h = true -> raw_to_bytes h = Some bs -> len bs = raw_header_len h.
Proof.
  intros V E. rewrite raw_to_bytes_valid in E by assumption. inversion E; subst bs.
  apply raw_valid_inv in V. destruct V as (_ & _ & Hp & _).
  rewrite !len_cons, Hp. unfold raw_header_len. lia.
Qed.

(* the bytes of a header do not depend on its next_header field being in range *)
Lemma raw_to_bytes_set h x : raw_valid h = true ->
  raw_to_bytes (raw_set_next_header h x) = Some (raw_wire_bytes (raw_set_next_header h x)).
Proof.
  intros V. apply raw_valid_inv in V. destruct V as (_ & Hl & Hp & _).
  unfold raw_to_bytes, raw_set_next_header, raw_wire_bytes, wire_options_header, RAW_MAX_LEN. cbn.
  destruct (2 + len (r_payload h) <=? 2048) eqn:E; [|lia].
  rewrite Hp. do 3 f_equal. dmlia.
Qed.

Lemma raw_wire h : raw_valid h = true ->
  raw_to_bytes h = Some (wire_options_header (r_next_header h) (r_payload h)).
Proof. intros V. destruct h as [nh hl p]. exact (raw_to_bytes_set (mkRaw nh hl p) nh V). Qed.

Lemma raw_new_raw_valid h : raw_valid h = true -> @raw_new_raw (r_next_header h) (r_payload h) = Ok h.
Proof.
  intros V. apply raw_valid_inv in V. destruct V as (_ & Hl & Hp & _).
  unfold raw_new_raw, RAW_MIN_PAYLOAD_LEN, RAW_MAX_PAYLOAD_LEN. rewrite Hp.
  destruct (6 + r_header_length h * 8 <? 6) eqn:E1; [lia|].
  destruct (2046 <? 6 + r_header_length h * 8) eqn:E2; [lia|].
  assert (E3 : ((6 + r_header_length h * 8 + 2) mod 8 =? 0) = true) by (apply N.eqb_eq; dmlia).
  rewrite E3. cbn [negb].
  assert (E4 : ((6 + r_header_length h * 8 - 6) / 8) mod 256 = r_header_length h) by dmlia.
  rewrite E4. destruct h; reflexivity.
Qed.

Lemma read_raw_written h wo slice r : raw_valid h = true ->
  read_raw wo slice ((r_next_header h :: r_header_length h :: r_payload h) ++ r)
  = Ok (h, r_next_header h, r).
Proof.
  intros V. pose proof (raw_valid_inv h V) as (_ & Hl & Hp & _).
  set (tb := r_next_header h :: r_header_length h :: r_payload h).
  assert (Ltb : len tb = (r_header_length h + 1) * 8).
  { unfold tb. rewrite !len_cons, Hp. lia. }
  unfold read_raw, raw_slice_from_slice.
  rewrite len_app, Ltb.
  destruct ((r_header_length h + 1) * 8 + len r <? 8) eqn:E1; [lia|].
  unfold tb at 1. cbn [app]. rewrite rd1.
  destruct ((r_header_length h + 1) * 8 + len r <? (r_header_length h + 1) * 8) eqn:E2; [lia|].
  change (r_next_header h :: r_header_length h :: r_payload h ++ r) with (tb ++ r).
  rewrite (take_app_len tb r) by (symmetry; exact Ltb).
  rewrite slice_from_app.
  unfold raw_slice_next_header. unfold tb at 1. rewrite rd0.
  unfold raw_slice_to_header, raw_slice_next_header, raw_slice_payload, usize_sub.
  unfold tb at 1. rewrite rd0. rewrite Ltb.
  destruct (2 <=? (r_header_length h + 1) * 8) eqn:E3; [|lia].
  change (drop 2 tb) with (r_payload h).
  rewrite raw_new_raw_valid by assumption. reflexivity.
Qed.

Lemma frag_valid_inv h : frag_valid h = true ->
  f_next_header h < 256 /\ f_fragment_offset h < 8192 /\ f_identification h < 4294967296.
Proof. unfold frag_valid. rewrite !andb_true_iff, !N.ltb_lt. tauto. Qed.

Lemma frag_to_bytes_len h : len (frag_to_bytes h) = frag_header_len h.
Proof. reflexivity. Qed.

Lemma frag_to_bytes_set h x : frag_valid h = true ->
  frag_to_bytes (frag_set_next_header h x) = frag_wire_bytes (frag_set_next_header h x).
Proof.
  intros V. apply frag_valid_inv in V. destruct V as (_ & Ho & Hi).
  unfold frag_to_bytes, frag_wire_bytes, frag_set_next_header, wire_fragment_header, to_be16. cbn.
  fold (fo_enc (f_fragment_offset h) (f_more_fragments h)). rewrite fo_enc_sum by assumption.
  rewrite wire_u32_to_be32 by assumption.
  rewrite (N.mod_small (_ / 256)) by (apply N.div_lt_upper_bound; destruct (f_more_fragments h); lia).
  reflexivity.
Qed.

Lemma frag_wire h : frag_valid h = true ->
  frag_to_bytes h =
  wire_fragment_header (f_next_header h) (f_fragment_offset h) (f_more_fragments h) (f_identification h).
Proof. intros V. destruct h as [nh off more ident]. exact (frag_to_bytes_set (mkFrag nh off more ident) nh V). Qed.

Lemma read_frag_written h slice r : frag_valid h = true ->
  read_frag slice (frag_to_bytes h ++ r) = Ok (h, f_next_header h, r).
Proof.
  intros V. apply frag_valid_inv in V. destruct V as (_ & Ho & Hi).
  destruct (fo_enc_decode (f_fragment_offset h) (f_more_fragments h) Ho) as [C1 C2].
  unfold fo_enc in C1, C2.
  unfold read_frag, frag_slice_from_slice.
  assert (L8 : len (frag_to_bytes h) = 8) by reflexivity.
  rewrite len_app, L8.
  destruct (8 + len r <? 8) eqn:E1; [lia|].
  rewrite (take_app_len (frag_to_bytes h) r 8) by (symmetry; exact L8).
  rewrite L8. rewrite <- L8 at 1. rewrite slice_from_app.
  unfold frag_slice_to_header, frag_to_bytes, to_be16, to_be32. cbn [app].
  rewrite rd0, rd2, rd3, rd4, rd5, rd6, rd7. cbn [bind].
  rewrite C1, C2, be32_to_be32 by assumption. destruct h; reflexivity.
Qed.

Lemma auth_valid_inv h : auth_valid h = true ->
  a_next_header h < 256 /\ a_spi h < 4294967296 /\ a_sequence_number h < 4294967296 /\
  a_raw_icv_len h < 255 /\ len (a_raw_icv h) = a_raw_icv_len h * 4 /\ bytes_ok (a_raw_icv h).
Proof. unfold auth_valid. rewrite !andb_true_iff, bytes_okb_spec, !N.ltb_lt, N.eqb_eq. tauto. Qed.

Definition auth_bytes (h : AuthH) : bytes :=
  [a_next_header h; a_raw_icv_len h + 1; 0; 0]
    ++ to_be32 (a_spi h) ++ to_be32 (a_sequence_number h) ++ a_raw_icv h.

Lemma auth_to_bytes_valid h : auth_valid h = true -> auth_to_bytes h = Some (auth_bytes h).
Proof.
  intros V. apply auth_valid_inv in V. destruct V as (_ & _ & _ & Hl & _).
  unfold auth_to_bytes. destruct (a_raw_icv_len h + 1 <? 256) eqn:E; [reflexivity|lia].
Qed.

Lemma auth_bytes_len h : auth_valid h = true -> len (auth_bytes h) = auth_header_len h.
Proof.
  intros V. apply auth_valid_inv in V. destruct V as (_ & _ & _ & _ & Hi & _).
  unfold auth_bytes, to_be32. cbn [app]. rewrite !len_cons, Hi. unfold auth_header_len. lia.
Qed.

Lemma auth_to_bytes_len h bs : auth_valid h = true -> auth_to_bytes h = Some bs -> len bs = auth_header_len h.
Proof.
  intros V E. rewrite auth_to_bytes_valid in E by assumption. inversion E. now apply auth_bytes_len.
Qed.

Lemma auth_wire h : auth_valid h = true ->
  auth_bytes h = wire_auth_header (a_next_header h) (a_spi h) (a_sequence_number h) (a_raw_icv h).
Proof.
  intros V. apply auth_valid_inv in V. destruct V as (_ & Hs & Hq & Hl & Hi & _).
  unfold auth_bytes, wire_auth_header. rewrite !wire_u32_to_be32 by assumption.
  rewrite Hi. cbn [app]. do 2 f_equal. dmlia.
Qed.

Lemma auth_new_valid h : auth_valid h = true ->
  @auth_new (a_next_header h) (a_spi h) (a_sequence_number h) (a_raw_icv h) = Ok h.
Proof.
  intros V. apply auth_valid_inv in V. destruct V as (_ & _ & _ & Hl & Hi & _).
  unfold auth_new, AUTH_MAX_ICV_LEN. rewrite Hi.
  destruct (1016 <? a_raw_icv_len h * 4) eqn:E1; [lia|].
  assert (E2 : ((a_raw_icv_len h * 4) mod 4 =? 0) = true) by (apply N.eqb_eq; dmlia).
  rewrite E2. cbn [negb].
  assert (E3 : (a_raw_icv_len h * 4 / 4) mod 256 = a_raw_icv_len h) by dmlia.
  rewrite E3. destruct h; reflexivity.
Qed.

Lemma auth_slice_written h r : auth_valid h = true ->
  auth_slice_from_slice (auth_bytes h ++ r) = Ok (auth_bytes h).
Proof.
  intros V. pose proof (auth_bytes_len h V) as L. unfold auth_header_len in L.
  apply auth_valid_inv in V. destruct V as (_ & _ & _ & Hl & Hi & _).
  unfold auth_slice_from_slice, AUTH_MIN_LEN. rewrite len_app, L.
  destruct (12 + a_raw_icv_len h * 4 + len r <? 12) eqn:E1; [lia|].
  unfold auth_bytes at 1. cbn [app]. rewrite rd1.
  destruct (a_raw_icv_len h + 1 <? 1) eqn:E2; [lia|].
  destruct (12 + a_raw_icv_len h * 4 + len r <? (a_raw_icv_len h + 1 + 2) * 4) eqn:E3; [lia|].
  f_equal. apply (take_app_len (auth_bytes h) r). lia.
Qed.

Lemma auth_slice_to_header_written {E} h : auth_valid h = true ->
  @auth_slice_to_header E (auth_bytes h) = Ok h.
Proof.
  intros V. pose proof (auth_valid_inv h V) as (_ & Hs & Hq & Hl & Hi & _).
  unfold auth_slice_to_header.
  assert (S12 : slice_from (auth_bytes h) 12 = Some (a_raw_icv h)).
  { unfold auth_bytes, to_be32. cbn [app].
    change 12 with (len [a_next_header h; a_raw_icv_len h + 1; 0; 0;
      (a_spi h / 16777216) mod 256; (a_spi h / 65536) mod 256; (a_spi h / 256) mod 256; a_spi h mod 256;
      (a_sequence_number h / 16777216) mod 256; (a_sequence_number h / 65536) mod 256;
      (a_sequence_number h / 256) mod 256; a_sequence_number h mod 256]).
    apply (slice_from_app [_;_;_;_;_;_;_;_;_;_;_;_]). }
  rewrite S12.
  unfold auth_bytes, to_be32. cbn [app].
  rewrite rd0, rd4, rd5, rd6, rd7, rd8, rd9, rd10, rd11.
  rewrite !be32_to_be32 by assumption.
  rewrite auth_new_valid by assumption. reflexivity.
Qed.

Lemma read_auth_written h slice r : auth_valid h = true ->
  read_auth slice (auth_bytes h ++ r) = Ok (h, a_next_header h, r).
Proof.
  intros V. unfold read_auth. rewrite auth_slice_written by assumption.
  rewrite slice_from_app.
  unfold auth_slice_next_header. unfold auth_bytes at 1. cbn [app]. rewrite rd0.
  rewrite auth_slice_to_header_written by assumption. reflexivity.
Qed.

Lemma auth_to_bytes_set h x : auth_valid h = true ->
  auth_to_bytes (auth_set_next_header h x) = Some (auth_wire_bytes (auth_set_next_header h x)).
Proof.
  intros V. apply auth_valid_inv in V. destruct V as (_ & Hs & Hq & Hl & Hi & _).
  unfold auth_to_bytes, auth_wire_bytes, auth_set_next_header, wire_auth_header.
  cbn [a_next_header a_spi a_sequence_number a_raw_icv_len a_raw_icv].
  destruct (a_raw_icv_len h + 1 <? 256) eqn:E; [|lia].
  rewrite !wire_u32_to_be32 by assumption. rewrite Hi. do 4 f_equal. dmlia.
Qed.

(* set_next_header keeps a header in range *)
Lemma raw_set_valid h n : raw_valid h = true -> n < 256 -> raw_valid (raw_set_next_header h n) = true.
Proof.
  unfold raw_valid, raw_set_next_header. cbn [r_next_header r_header_length r_payload].
  rewrite !andb_true_iff, !N.ltb_lt. tauto.
Qed.

Lemma frag_set_valid h n : frag_valid h = true -> n < 256 -> frag_valid (frag_set_next_header h n) = true.
Proof.
  unfold frag_valid, frag_set_next_header. cbn [f_next_header f_fragment_offset f_identification].
  rewrite !andb_true_iff, !N.ltb_lt. tauto.
Qed.

Lemma auth_set_valid h n : auth_valid h = true -> n < 256 -> auth_valid (auth_set_next_header h n) = true.
Proof.
  unfold auth_valid, auth_set_next_header. cbn [a_next_header a_spi a_sequence_number a_raw_icv_len a_raw_icv].
  rewrite !andb_true_iff, !N.ltb_lt. tauto.
Qed.

(* what to_bytes emits for a header in range are bytes *)
Lemma bytes_ok_to_be32 v : bytes_ok (to_be32 v).
Proof. unfold to_be32. repeat (apply Forall_cons; [apply N.mod_lt; discriminate|]). apply Forall_nil. Qed.

Lemma raw_to_bytes_ok h bs : raw_valid h = true -> raw_to_bytes h = Some bs -> bytes_ok bs.
Proof.
  intros V E. rewrite (raw_to_bytes_valid h V) in E. injection E as <-.
  destruct (raw_valid_inv h V) as (A & B & _ & D).
  apply Forall_cons; [exact A|]. apply Forall_cons; [exact B|exact D].
Qed.

Lemma frag_to_bytes_ok h : frag_valid h = true -> bytes_ok (frag_to_bytes h).
Proof.
  intros V. destruct (frag_valid_inv h V) as (A & _ & _). unfold frag_to_bytes, to_be16. cbn [app].
  apply Forall_cons; [exact A|]. apply Forall_cons; [reflexivity|].
  do 2 (apply Forall_cons; [apply N.mod_lt; discriminate|]). apply bytes_ok_to_be32.
Qed.

Lemma auth_to_bytes_ok h bs : auth_valid h = true -> auth_to_bytes h = Some bs -> bytes_ok bs.
Proof.
  intros V E. rewrite (auth_to_bytes_valid h V) in E. injection E as <-.
  destruct (auth_valid_inv h V) as (A & _ & _ & B & _ & D). unfold auth_bytes. cbn [app].
  apply Forall_cons; [exact A|]. apply Forall_cons; [unfold byte_ok; lia|]. do 2 (apply Forall_cons; [reflexivity|]).
  apply bytes_ok_app. split; [apply bytes_ok_to_be32|]. apply bytes_ok_app. split; [apply bytes_ok_to_be32|exact D].
Qed.

(* ------------------------------------------------------------------ *)
(* flags *)

(* a flag that is still set belongs to a header that exists *)
Definition flags_ok (e : Exts6) (f : Flags) : Prop :=
  (fl_hop_by_hop_options f = true -> is_some (hop_by_hop_options e) = true) /\
  (fl_destination_options f = true -> is_some (destination_options e) = true) /\
  (fl_routing f = true -> is_some (routing e) = true) /\
  (fl_fragment f = true -> is_some (fragment e) = true) /\
  (fl_auth f = true -> is_some (auth e) = true) /\
  (fl_final_destination_options f = true ->
   exists r, routing e = Some r /\ is_some (rt_final_destination_options r) = true).

Lemma flags_ok_init e : flags_ok e (flags_init e).
Proof.
  unfold flags_ok, flags_init. cbn. repeat split; auto.
  destruct (routing e) as [r|]; [|discriminate]. intros H. eauto.
Qed.

Lemma flags_ok_clr_hop e f : flags_ok e f -> flags_ok e (clr_hop f).
Proof. unfold flags_ok, clr_hop; cbn. intuition discriminate. Qed.
Lemma flags_ok_clr_dst e f : flags_ok e f -> flags_ok e (clr_dst f).
Proof. unfold flags_ok, clr_dst; cbn. intuition discriminate. Qed.
Lemma flags_ok_clr_routing e f : flags_ok e f -> flags_ok e (clr_routing f).
Proof. unfold flags_ok, clr_routing; cbn. intuition discriminate. Qed.
Lemma flags_ok_clr_frag e f : flags_ok e f -> flags_ok e (clr_frag f).
Proof. unfold flags_ok, clr_frag; cbn. intuition discriminate. Qed.
Lemma flags_ok_clr_auth e f : flags_ok e f -> flags_ok e (clr_auth f).
Proof. unfold flags_ok, clr_auth; cbn. intuition discriminate. Qed.
Lemma flags_ok_clr_final e f : flags_ok e f -> flags_ok e (clr_final f).
Proof. unfold flags_ok, clr_final; cbn. intuition discriminate. Qed.

(* number of flags the loop can still clear *)
Definition b2n (b : bool) : nat := if b then 1%nat else 0%nat.
Definition pending (f : Flags) : nat :=
  (b2n (fl_destination_options f) + b2n (fl_routing f) + b2n (fl_fragment f)
   + b2n (fl_auth f) + b2n (fl_final_destination_options f))%nat.

Lemma pending_le5 f : (pending f <= 5)%nat.
Proof. destruct f as [[] [] [] [] [] []]; cbn; lia. Qed.

(* validity of the parts *)
Lemma exts6_valid_inv e : exts6_valid e = true ->
  opt_valid raw_valid (hop_by_hop_options e) = true /\
  opt_valid raw_valid (destination_options e) = true /\
  opt_valid routing_valid (routing e) = true /\
  opt_valid frag_valid (fragment e) = true /\
  opt_valid auth_valid (auth e) = true.
Proof. unfold exts6_valid. rewrite !andb_true_iff. tauto. Qed.

Lemma routing_valid_inv r : routing_valid r = true ->
  raw_valid (rt_routing r) = true /\ opt_valid raw_valid (rt_final_destination_options r) = true.
Proof. unfold routing_valid. rewrite andb_true_iff. tauto. Qed.

(* ------------------------------------------------------------------ *)
(* the two walkers of the model, one step at a time *)

Definition flag (f : Flags) (k : ext_kind) : bool :=
  match k with
  | KHopByHop => fl_hop_by_hop_options f
  | KDestOpts => fl_destination_options f
  | KRouting => fl_routing f
  | KFragment => fl_fragment f
  | KAuth => fl_auth f
  | KFinalDestOpts => fl_final_destination_options f
  end.

Definition clr (k : ext_kind) (f : Flags) : Flags :=
  match k with
  | KHopByHop => clr_hop f
  | KDestOpts => clr_dst f
  | KRouting => clr_routing f
  | KFragment => clr_frag f
  | KAuth => clr_auth f
  | KFinalDestOpts => clr_final f
  end.

(* the position a number selects inside the loop *)
Definition sel (rr : bool) (next : N) : option ext_kind :=
  match arm_of next with
  | AHop | AOther => None
  | ADest => Some (if rr then KFinalDestOpts else KDestOpts)
  | ARoute => Some KRouting
  | AFrag => Some KFragment
  | AAuth => Some KAuth
  end.

Definition hop_stop (f : Flags) (next : N) : bool :=
  (next =? IPV6_HOP_BY_HOP) && fl_hop_by_hop_options f.

(* what to_bytes gives for the header at a position *)
Definition to_bytes_at (e : Exts6) (k : ext_kind) : option bytes :=
  match k with
  | KHopByHop => match hop_by_hop_options e with Some h => raw_to_bytes h | None => None end
  | KDestOpts => match destination_options e with Some h => raw_to_bytes h | None => None end
  | KRouting => match routing e with Some r => raw_to_bytes (rt_routing r) | None => None end
  | KFragment => match fragment e with Some h => Some (frag_to_bytes h) | None => None end
  | KAuth => match auth e with Some h => auth_to_bytes h | None => None end
  | KFinalDestOpts =>
    match routing e with
    | Some r => match rt_final_destination_options r with Some h => raw_to_bytes h | None => None end
    | None => None
    end
  end.

Lemma nh_loop_unfold fuel e f next rr :
  next_header_loop (S fuel) e f next rr =
  match sel rr next with
  | Some k =>
    if flag f k then
      match get_nh e k with
      | Some nh => next_header_loop fuel e (clr k f) nh (rr || kind_eqb k KRouting)
      | None => Panic
      end
    else check_all_done f next
  | None => if hop_stop f next then Err HopByHopNotAtStart else check_all_done f next
  end.
Proof.
  cbn [next_header_loop]. unfold sel, hop_stop.
  destruct (arm_of_cases next) as [[A Nx]|[[A Nx]|[[A Nx]|[[A Nx]|[[A Nx]|[A Nx]]]]]]; rewrite A.
  - subst next. cbn. reflexivity.
  - destruct rr; cbn.
    + destruct (fl_final_destination_options f); [|reflexivity].
      destruct (routing e) as [r|]; [|reflexivity]. cbn.
      destruct (rt_final_destination_options r); reflexivity.
    + destruct (fl_destination_options f); [|reflexivity].
      destruct (destination_options e); reflexivity.
  - cbn. destruct (fl_routing f); [|reflexivity]. destruct (routing e); cbn; [|reflexivity].
    now rewrite orb_true_r.
  - cbn. destruct (fl_fragment f); [|reflexivity]. destruct (fragment e); cbn; [|reflexivity].
    now rewrite orb_false_r.
  - cbn. destruct (fl_auth f); [|reflexivity]. destruct (auth e); cbn; [|reflexivity].
    now rewrite orb_false_r.
  - assert (E : (next =? IPV6_HOP_BY_HOP) = false).
    { apply is_ext_number_false in Nx. apply Nx. }
    rewrite E. reflexivity.
Qed.

Lemma write_loop_unfold fuel e f next rr w :
  write_loop (S fuel) e f next rr w =
  match sel rr next with
  | Some k =>
    if flag f k then
      match get_nh e k, to_bytes_at e k with
      | Some nh, Some bs => write_loop fuel e (clr k f) nh (rr || kind_eqb k KRouting) (w ++ bs)
      | _, _ => (w, Panic)
      end
    else (w, check_all_done f tt)
  | None => if hop_stop f next then (w, Err HopByHopNotAtStart) else (w, check_all_done f tt)
  end.
Proof.
  cbn [write_loop]. unfold sel, hop_stop.
  destruct (arm_of_cases next) as [[A Nx]|[[A Nx]|[[A Nx]|[[A Nx]|[[A Nx]|[A Nx]]]]]]; rewrite A.
  - subst next. cbn. destruct (fl_hop_by_hop_options f); reflexivity.
  - destruct rr; cbn.
    + destruct (fl_final_destination_options f); [|reflexivity].
      destruct (routing e) as [r|]; [|reflexivity]. cbn.
      destruct (rt_final_destination_options r) as [h|]; [|reflexivity]. cbn.
      destruct (raw_to_bytes h); reflexivity.
    + destruct (fl_destination_options f); [|reflexivity].
      destruct (destination_options e) as [h|]; [|reflexivity]. cbn.
      destruct (raw_to_bytes h); reflexivity.
  - cbn. destruct (fl_routing f); [|reflexivity]. destruct (routing e) as [r|]; cbn; [|reflexivity].
    destruct (raw_to_bytes (rt_routing r)); [|reflexivity]. now rewrite orb_true_r.
  - cbn. destruct (fl_fragment f); [|reflexivity]. destruct (fragment e); cbn; [|reflexivity].
    now rewrite orb_false_r.
  - cbn. destruct (fl_auth f); [|reflexivity]. destruct (auth e) as [h|]; cbn; [|reflexivity].
    destruct (auth_to_bytes h); [|reflexivity]. now rewrite orb_false_r.
  - assert (E : (next =? IPV6_HOP_BY_HOP) = false).
    { apply is_ext_number_false in Nx. apply Nx. }
    rewrite E. reflexivity.
Qed.

(* the bytes written are bytes *)
Lemma to_bytes_at_ok e k bs : exts6_valid e = true -> to_bytes_at e k = Some bs -> bytes_ok bs.
Proof.
  intros V. pose proof (exts6_valid_inv e V) as (Vh & Vd & Vr & Vf & Va). destruct k; cbn [to_bytes_at].
  - destruct (hop_by_hop_options e) as [h|]; [|discriminate]. now apply raw_to_bytes_ok.
  - destruct (destination_options e) as [h|]; [|discriminate]. now apply raw_to_bytes_ok.
  - destruct (routing e) as [r|]; [|discriminate]. apply raw_to_bytes_ok, (routing_valid_inv r Vr).
  - destruct (fragment e) as [h|]; [|discriminate]. intros [= <-]. now apply frag_to_bytes_ok.
  - destruct (auth e) as [h|]; [|discriminate]. now apply auth_to_bytes_ok.
  - destruct (routing e) as [r|]; [|discriminate]. destruct (routing_valid_inv r Vr) as [_ Vfd].
    destruct (rt_final_destination_options r) as [h|]; [|discriminate]. now apply raw_to_bytes_ok.
Qed.

Lemma write_loop_bytes_ok fuel : forall e nw next rw w, exts6_valid e = true -> bytes_ok w ->
  bytes_ok (fst (write_loop fuel e nw next rw w)).
Proof.
  induction fuel as [|f IH]; intros e nw next rw w V OK; [exact OK|].
  rewrite write_loop_unfold. destruct (sel rw next) as [k|]; [|destruct (hop_stop nw next); exact OK].
  destruct (flag nw k); [|exact OK].
  destruct (get_nh e k); [|exact OK]. destruct (to_bytes_at e k) as [bs|] eqn:E; [|exact OK].
  apply IH; [exact V|]. apply bytes_ok_app. split; [exact OK|exact (to_bytes_at_ok e k bs V E)].
Qed.

Lemma write_bytes_ok e first : exts6_valid e = true -> bytes_ok (fst (write e first)).
Proof.
  intros V. unfold write.
  destruct (IPV6_HOP_BY_HOP =? first); [|apply write_loop_bytes_ok; [exact V|apply Forall_nil]].
  pose proof (to_bytes_at_ok e KHopByHop) as H. cbn [to_bytes_at] in H.
  destruct (hop_by_hop_options e) as [h|]; [|apply write_loop_bytes_ok; [exact V|apply Forall_nil]].
  destruct (raw_to_bytes h) as [bs|]; [|apply Forall_nil]. apply write_loop_bytes_ok; eauto.
Qed.

(* to_bytes gives the RFC wire format at every position that holds a header *)
Definition wire_ok (e : Exts6) : Prop :=
  forall k nh, get_nh e k = Some nh -> to_bytes_at e k = Some (wire_at e k).

(* ... which the type invariant ensures *)
Lemma valid_wire_ok e : exts6_valid e = true -> wire_ok e.
Proof.
  intros V k nh G. pose proof (exts6_valid_inv e V) as (Vh & Vd & Vr & Vf & Va).
  unfold wire_at. destruct k; cbn in *.
  - destruct (hop_by_hop_options e) as [h|]; [|discriminate]. cbn in *. now apply raw_wire.
  - destruct (destination_options e) as [h|]; [|discriminate]. cbn in *. now apply raw_wire.
  - destruct (routing e) as [r|]; [|discriminate]. cbn in *.
    apply routing_valid_inv in Vr. apply raw_wire, Vr.
  - destruct (fragment e) as [h|]; [|discriminate]. cbn in *. f_equal. now apply frag_wire.
  - destruct (auth e) as [h|]; [|discriminate]. cbn in *.
    rewrite auth_to_bytes_valid by assumption. f_equal. now apply auth_wire.
  - destruct (routing e) as [r|]; [|discriminate]. cbn in *.
    apply routing_valid_inv in Vr. destruct Vr as [_ Vr].
    destruct (rt_final_destination_options r) as [h|]; [|discriminate]. cbn in *. now apply raw_wire.
Qed.

(* ------------------------------------------------------------------ *)
(* the flags are the headers not yet in the chain *)

Definition tracks (e : Exts6) (seen : list ext_kind) (f : Flags) (rr : bool) : Prop :=
  (forall k, flag f k = is_some (get_nh e k) && negb (has k seen)) /\ rr = has KRouting seen.

Lemma flag_clr k f k0 : flag (clr k f) k0 = if kind_eqb k0 k then false else flag f k0.
Proof. destruct k, k0; reflexivity. Qed.

Lemma kind_eqb_sym a b : kind_eqb a b = kind_eqb b a.
Proof. destruct a, b; reflexivity. Qed.

Lemma tracks_step e seen f rr k :
  tracks e seen f rr -> tracks e (seen ++ [k]) (clr k f) (rr || kind_eqb k KRouting).
Proof.
  intros [T1 T2]. split.
  - intros k0. rewrite flag_clr, has_snoc, T1.
    destruct (kind_eqb k0 k); [now rewrite orb_true_r, andb_false_r|now rewrite orb_false_r].
  - rewrite has_snoc, T2, (kind_eqb_sym k). reflexivity.
Qed.

Lemma tracks_init e : tracks e [] (flags_init e) false.
Proof.
  split; [|reflexivity]. intros k. cbn [has existsb negb]. rewrite andb_true_r.
  destruct k; cbn; rewrite ?is_some_map; try reflexivity;
    destruct (routing e) as [r|]; cbn; rewrite ?is_some_map; reflexivity.
Qed.

Lemma pending_clr k f : flag f k = true -> k <> KHopByHop -> (pending (clr k f) < pending f)%nat.
Proof.
  intros F NH. destruct k; [contradiction| | | | | ]; cbn [flag] in F; unfold pending; cbn; rewrite F; cbn; lia.
Qed.

(* what the selected position means for the chain *)
Lemma sel_spec e chain f rr next :
  tracks e (map fst chain) f rr ->
  (chain = [] -> next = 0 -> get_nh e KHopByHop = None) ->
  match sel rr next with
  | Some k =>
    k <> KHopByHop /\ (next =? IPV6_HOP_BY_HOP) = false /\
    if flag f k then exists nh, get_nh e k = Some nh /\ can_extend (get_nh e) chain next k nh
    else maximal (get_nh e) chain next
  | None => maximal (get_nh e) chain next
  end.
Proof.
  intros [T1 T2] Gd. unfold sel.
  assert (HI : forall k, has k (map fst chain) = false -> ~ In k (map fst chain)) by (intros k; apply has_not_In).
  assert (HT : forall k, has k (map fst chain) = true -> In k (map fst chain)) by (intros k; apply has_In).
  destruct (arm_of_cases next) as [[A Nx]|[[A Nx]|[[A Nx]|[[A Nx]|[[A Nx]|[A Nx]]]]]]; rewrite A.
  - (* 0 *)
    intros k nh (E & G & NI & M). rewrite Nx in E. destruct k; try discriminate E. cbn in M.
    apply map_eq_nil in M. rewrite (Gd M Nx) in G. discriminate.
  - (* 60 *)
    split; [destruct rr; discriminate|]. split; [now subst next|].
    destruct rr.
    + rewrite T1. destruct (get_nh e KFinalDestOpts) as [nh|] eqn:G; cbn [is_some andb].
      * destruct (has KFinalDestOpts (map fst chain)) eqn:H; cbn [negb].
        -- intros k nh' (E & G' & NI & M). rewrite Nx in E. destruct k; try discriminate E; cbn in M.
           ++ apply M, HT. now symmetry.
           ++ apply NI, HT, H.
        -- exists nh. split; [reflexivity|]. repeat split; auto. cbn. apply HT. now symmetry.
      * intros k nh' (E & G' & NI & M). rewrite Nx in E. destruct k; try discriminate E; cbn in M.
        -- apply M, HT. now symmetry.
        -- congruence.
    + rewrite T1. destruct (get_nh e KDestOpts) as [nh|] eqn:G; cbn [is_some andb].
      * destruct (has KDestOpts (map fst chain)) eqn:H; cbn [negb].
        -- intros k nh' (E & G' & NI & M). rewrite Nx in E. destruct k; try discriminate E; cbn in M.
           ++ apply NI, HT, H.
           ++ apply (HI KRouting); [now symmetry|exact M].
        -- exists nh. split; [reflexivity|]. repeat split; auto. cbn. apply HI. now symmetry.
      * intros k nh' (E & G' & NI & M). rewrite Nx in E. destruct k; try discriminate E; cbn in M.
        -- congruence.
        -- apply (HI KRouting); [now symmetry|exact M].
  - (* 43 *)
    split; [discriminate|]. split; [now subst next|].
    rewrite T1. destruct (get_nh e KRouting) as [nh|] eqn:G; cbn [is_some andb].
    + destruct (has KRouting (map fst chain)) eqn:H; cbn [negb].
      * intros k nh' (E & G' & NI & M). rewrite Nx in E. destruct k; try discriminate E. apply NI, HT, H.
      * exists nh. split; [reflexivity|]. repeat split; auto.
    + intros k nh' (E & G' & NI & M). rewrite Nx in E. destruct k; try discriminate E. congruence.
  - (* 44 *)
    split; [discriminate|]. split; [now subst next|].
    rewrite T1. destruct (get_nh e KFragment) as [nh|] eqn:G; cbn [is_some andb].
    + destruct (has KFragment (map fst chain)) eqn:H; cbn [negb].
      * intros k nh' (E & G' & NI & M). rewrite Nx in E. destruct k; try discriminate E. apply NI, HT, H.
      * exists nh. split; [reflexivity|]. repeat split; auto.
    + intros k nh' (E & G' & NI & M). rewrite Nx in E. destruct k; try discriminate E. congruence.
  - (* 51 *)
    split; [discriminate|]. split; [now subst next|].
    rewrite T1. destruct (get_nh e KAuth) as [nh|] eqn:G; cbn [is_some andb].
    + destruct (has KAuth (map fst chain)) eqn:H; cbn [negb].
      * intros k nh' (E & G' & NI & M). rewrite Nx in E. destruct k; try discriminate E. apply NI, HT, H.
      * exists nh. split; [reflexivity|]. repeat split; auto.
    + intros k nh' (E & G' & NI & M). rewrite Nx in E. destruct k; try discriminate E. congruence.
  - (* no extension number *)
    intros k nh (E & _). apply is_ext_number_false in Nx. destruct Nx as (N0 & N60 & N43 & N44 & N51).
    rewrite <- E in *. destruct k; cbn in *; discriminate.
Qed.

(* the final check reports the first header, in RFC 8200 order, outside the chain *)
Lemma unreferenced_flags e chain f rr : tracks e (map fst chain) f rr ->
  unreferenced (get_nh e) chain = filter (flag f) rfc8200_order.
Proof.
  intros [T1 _]. unfold unreferenced. apply filter_ext. intros k. rewrite T1.
  destruct (get_nh e k); reflexivity.
Qed.

Lemma check_done_verdict {A} e chain f rr next (a : A) :
  tracks e (map fst chain) f rr -> hop_stop f next = false ->
  check_all_done f a =
  match verdict (get_nh e) chain next with
  | VOk _ => Ok a
  | VHopByHopNotAtStart => Err HopByHopNotAtStart
  | VNotReferenced m => Err (ExtNotReferenced m)
  end.
Proof.
  intros T H. unfold verdict. rewrite (unreferenced_flags e chain f rr T).
  unfold hop_stop in H. change (ip_number_of KHopByHop) with IPV6_HOP_BY_HOP.
  destruct f as [[] [] [] [] [] []]; cbn in *; rewrite ?andb_true_r in H; rewrite ?H, ?andb_false_r; reflexivity.
Qed.

Lemma hop_stop_verdict e chain f rr next :
  tracks e (map fst chain) f rr -> hop_stop f next = true ->
  verdict (get_nh e) chain next = VHopByHopNotAtStart.
Proof.
  intros T H. unfold verdict. rewrite (unreferenced_flags e chain f rr T).
  unfold hop_stop in H. apply andb_true_iff in H. destruct H as [H1 H2].
  change (ip_number_of KHopByHop) with IPV6_HOP_BY_HOP. cbn [filter rfc8200_order flag]. rewrite H2, H1. reflexivity.
Qed.

Lemma wire_bytes_cons e k ks : wire_bytes e (k :: ks) = wire_at e k ++ wire_bytes e ks.
Proof. reflexivity. Qed.

(* the loops follow the maximal chain and report its verdict *)
Lemma loop_char fuel : forall e f rr chain next first,
  tracks e (map fst chain) f rr ->
  referenced (get_nh e) first chain next ->
  (chain = [] -> next = 0 -> get_nh e KHopByHop = None) ->
  (pending f < fuel)%nat ->
  exists d next',
    referenced (get_nh e) first (chain ++ d) next' /\ maximal (get_nh e) (chain ++ d) next' /\
    next_header_loop fuel e f next rr = res_of_verdict (verdict (get_nh e) (chain ++ d) next') /\
    (wire_ok e -> forall w,
       write_loop fuel e f next rr w =
       (w ++ wire_bytes e (map fst d), unit_of_verdict (verdict (get_nh e) (chain ++ d) next'))).
Proof.
  induction fuel as [|fuel IH]; intros e f rr chain next first T R Gd P; [lia|].
  pose proof (sel_spec e chain f rr next T Gd) as SP.
  rewrite nh_loop_unfold.
  destruct (sel rr next) as [k|] eqn:SE.
  - destruct SP as (NH & N0 & SP). destruct (flag f k) eqn:Fk.
    + destruct SP as (nh & G & X).
      assert (T' : tracks e (map fst (chain ++ [(k, nh)])) (clr k f) (rr || kind_eqb k KRouting)).
      { rewrite map_app. cbn [map fst]. now apply tracks_step. }
      assert (R' : referenced (get_nh e) first (chain ++ [(k, nh)]) nh).
      { apply referenced_snoc. exists next. auto. }
      assert (Gd' : chain ++ [(k, nh)] = [] -> nh = 0 -> get_nh e KHopByHop = None).
      { intros E. destruct chain; discriminate. }
      assert (P' : (pending (clr k f) < fuel)%nat).
      { pose proof (pending_clr k f Fk NH). lia. }
      destruct (IH e _ _ _ _ first T' R' Gd' P') as (d & next' & R2 & M2 & E2 & W2).
      exists ((k, nh) :: d), next'.
      replace (chain ++ (k, nh) :: d) with ((chain ++ [(k, nh)]) ++ d) by (now rewrite <- app_assoc).
      split; [exact R2|]. split; [exact M2|]. split.
      * rewrite G. exact E2.
      * intros V w. rewrite write_loop_unfold, SE, Fk, G, (V k nh G).
        rewrite (W2 V). cbn [map fst]. rewrite wire_bytes_cons, app_assoc. reflexivity.
    + exists [], next. rewrite app_nil_r.
      assert (HS : hop_stop f next = false) by (unfold hop_stop; now rewrite N0).
      split; [exact R|]. split; [exact SP|]. split.
      * rewrite (check_done_verdict e chain f rr next next T HS).
        destruct (verdict (get_nh e) chain next) eqn:Vd; try reflexivity.
        unfold verdict in Vd. destruct (unreferenced (get_nh e) chain); [now inversion Vd|].
        destruct (_ && _); discriminate.
      * intros V w. rewrite write_loop_unfold, SE, Fk, app_nil_r.
        rewrite (check_done_verdict e chain f rr next tt T HS).
        destruct (verdict (get_nh e) chain next); reflexivity.
  - exists [], next. rewrite app_nil_r. destruct (hop_stop f next) eqn:HS.
    + rewrite (hop_stop_verdict e chain f rr next T HS).
      split; [exact R|]. split; [exact SP|]. split; [reflexivity|].
      intros V w. now rewrite write_loop_unfold, SE, HS, app_nil_r.
    + split; [exact R|]. split; [exact SP|]. split.
      * rewrite (check_done_verdict e chain f rr next next T HS).
        destruct (verdict (get_nh e) chain next) eqn:Vd; try reflexivity.
        unfold verdict in Vd. destruct (unreferenced (get_nh e) chain); [now inversion Vd|].
        destruct (_ && _); discriminate.
      * intros V w. rewrite write_loop_unfold, SE, HS, app_nil_r.
        rewrite (check_done_verdict e chain f rr next tt T HS).
        destruct (verdict (get_nh e) chain next); reflexivity.
Qed.

(* ------------------------------------------------------------------ *)
(* Ipv6Extensions::next_header and ::write follow the maximal chain *)

Lemma get_nh_final_routing e : get_nh e KFinalDestOpts <> None -> get_nh e KRouting <> None.
Proof. cbn. destruct (routing e); [discriminate|congruence]. Qed.

Lemma walk_exact_wire e first : exists chain next,
  referenced (get_nh e) first chain next /\ maximal (get_nh e) chain next /\
  next_header e first = res_of_verdict (verdict (get_nh e) chain next) /\
  (wire_ok e ->
   write e first = (wire_bytes e (map fst chain), unit_of_verdict (verdict (get_nh e) chain next))).
Proof.
  assert (P0 : (pending (flags_init e) < LOOP_FUEL)%nat).
  { pose proof (pending_le5 (flags_init e)). unfold LOOP_FUEL. lia. }
  unfold next_header, write.
  destruct (IPV6_HOP_BY_HOP =? first) eqn:E0.
  - destruct (hop_by_hop_options e) as [h|] eqn:Eh.
    + apply N.eqb_eq in E0.
      assert (G : get_nh e KHopByHop = Some (r_next_header h)) by (cbn; now rewrite Eh).
      assert (T : tracks e (map fst [(KHopByHop, r_next_header h)]) (clr_hop (flags_init e)) false).
      { apply (tracks_step e [] (flags_init e) false KHopByHop), tracks_init. }
      assert (R : referenced (get_nh e) first [(KHopByHop, r_next_header h)] (r_next_header h)).
      { apply (referenced_snoc _ _ []). exists first. split; [apply referenced_nil|]. split; [|reflexivity].
        repeat split; auto. }
      destruct (loop_char LOOP_FUEL e _ _ _ _ first T R ltac:(discriminate) P0) as (d & next' & R2 & M2 & E2 & W2).
      exists ([(KHopByHop, r_next_header h)] ++ d), next'.
      split; [exact R2|]. split; [exact M2|]. split; [exact E2|].
      intros V. pose proof (V KHopByHop _ G) as TB. cbn [to_bytes_at] in TB. rewrite Eh in TB.
      rewrite TB, (W2 V). reflexivity.
    + assert (Gd : @nil (ext_kind * N) = [] -> first = 0 -> get_nh e KHopByHop = None).
      { intros _ _. cbn. now rewrite Eh. }
      destruct (loop_char LOOP_FUEL e _ _ [] _ first (tracks_init e) (referenced_nil _ first) Gd P0)
        as (d & next' & R2 & M2 & E2 & W2).
      exists d, next'. cbn [app] in *. split; [exact R2|]. split; [exact M2|]. split; [exact E2|].
      intros V. rewrite (W2 V). reflexivity.
  - assert (Gd : @nil (ext_kind * N) = [] -> first = 0 -> get_nh e KHopByHop = None).
    { intros _ F0. subst first. discriminate. }
    destruct (loop_char LOOP_FUEL e _ _ [] _ first (tracks_init e) (referenced_nil _ first) Gd P0)
      as (d & next' & R2 & M2 & E2 & W2).
    exists d, next'. cbn [app] in *. split; [exact R2|]. split; [exact M2|]. split; [exact E2|].
    intros V. rewrite (W2 V). reflexivity.
Qed.

Theorem walk_exact e first : exists chain next,
  referenced (get_nh e) first chain next /\ maximal (get_nh e) chain next /\
  next_header e first = res_of_verdict (verdict (get_nh e) chain next) /\
  (exts6_valid e = true ->
   write e first = (wire_bytes e (map fst chain), unit_of_verdict (verdict (get_nh e) chain next))).
Proof.
  destruct (walk_exact_wire e first) as (c & nx & R & M & E & W). exists c, nx.
  split; [exact R|]. split; [exact M|]. split; [exact E|]. intros V. apply W, valid_wire_ok, V.
Qed.

Lemma res_of_verdict_ok v n : res_of_verdict v = Ok n <-> v = VOk n.
Proof. destruct v; cbn; split; intros H; inversion H; reflexivity. Qed.

Lemma unit_of_verdict_ok v : unit_of_verdict v = Ok tt <-> exists n, v = VOk n.
Proof. destruct v; cbn; split; intros H; try discriminate; eauto; destruct H; discriminate. Qed.

(* what follows for any pair of walkers that reports the verdict of a maximal chain; used for
   Ipv6Extensions here and for Ipv4Extensions below *)
Section ChainVerdict.
  Variables (get : ext_kind -> option N) (nh : N -> res walk_error N)
            (wr : N -> bytes * res walk_error unit) (wire : list ext_kind -> bytes) (valid : Prop).
  Hypothesis exact_walk : forall first, exists chain next,
    referenced get first chain next /\ maximal get chain next /\
    nh first = res_of_verdict (verdict get chain next) /\
    (valid -> wr first = (wire (map fst chain), unit_of_verdict (verdict get chain next))).

  (* the answer is the verdict of THE maximal chain *)
  Lemma verdict_iff first r :
    nh first = r <->
    exists chain next, referenced get first chain next /\ maximal get chain next /\
                       r = res_of_verdict (verdict get chain next).
  Proof.
    destruct (exact_walk first) as (c & nx & R & M & E & _). split.
    - intros <-. exists c, nx. auto.
    - intros (c' & nx' & R' & M' & ->).
      destruct (maximal_unique _ _ _ _ _ _ R M R' M') as [-> ->]. exact E.
  Qed.

  (* soundness and completeness of a successful walk *)
  Lemma ok_iff_chain first n :
    nh first = Ok n <-> exists chain, complete_chain get first chain n.
  Proof.
    rewrite verdict_iff. split.
    - intros (c & nx & R & M & E). symmetry in E. apply res_of_verdict_ok, verdict_ok in E.
      destruct E as [U ->]. exists c. apply complete_chain_iff. auto.
    - intros (c & C). pose proof (complete_maximal _ _ _ _ C) as M.
      apply complete_chain_iff in C. destruct C as [R U].
      exists c, n. split; [exact R|]. split; [exact M|].
      symmetry. apply res_of_verdict_ok, verdict_ok. auto.
  Qed.

  Lemma wr_ok_iff_chain first bs : valid ->
    (wr first = (bs, Ok tt) <->
     exists chain n, complete_chain get first chain n /\ nh first = Ok n /\ bs = wire (map fst chain)).
  Proof.
    intros V. destruct (exact_walk first) as (c & nx & R & M & E & W). specialize (W V). split.
    - rewrite W. intros H. inversion H as [[H1 H2]]. apply unit_of_verdict_ok in H2. destruct H2 as [n Vn].
      exists c, n. rewrite E, Vn. apply verdict_ok in Vn. destruct Vn as [U ->].
      split; [apply complete_chain_iff; auto|]. split; reflexivity.
    - intros (c' & n & C & _ & ->). pose proof (complete_maximal _ _ _ _ C) as M'.
      apply complete_chain_iff in C. destruct C as [R' U].
      destruct (maximal_unique _ _ _ _ _ _ R M R' M') as [-> ->].
      rewrite W. f_equal. apply unit_of_verdict_ok. exists n. apply verdict_ok. auto.
  Qed.
End ChainVerdict.

Theorem walk_verdict_iff e first r :
  next_header e first = r <->
  exists chain next, referenced (get_nh e) first chain next /\ maximal (get_nh e) chain next /\
                     r = res_of_verdict (verdict (get_nh e) chain next).
Proof. exact (verdict_iff _ _ _ _ _ (walk_exact e) first r). Qed.

Theorem walk_ok_iff_chain e first n :
  next_header e first = Ok n <-> exists chain, complete_chain (get_nh e) first chain n.
Proof. exact (ok_iff_chain _ _ _ _ _ (walk_exact e) first n). Qed.

Theorem write_ok_iff_chain e first bs : exts6_valid e = true ->
  (write e first = (bs, Ok tt) <->
   exists chain n, complete_chain (get_nh e) first chain n /\ next_header e first = Ok n /\
                   bs = wire_bytes e (map fst chain)).
Proof. exact (wr_ok_iff_chain _ _ _ _ _ (walk_exact e) first bs). Qed.

(* a failing walk: the error is determined by the maximal chain *)

Theorem walk_err_iff_chain e first x :
  next_header e first = Err x <->
  exists chain next k rest,
    referenced (get_nh e) first chain next /\ maximal (get_nh e) chain next /\
    unreferenced (get_nh e) chain = k :: rest /\ x = error_of next k.
Proof.
  rewrite walk_verdict_iff. unfold verdict, error_of. split.
  - intros (c & nx & R & M & E). exists c, nx.
    destruct (unreferenced (get_nh e) c) as [|k rest]; [discriminate|].
    exists k, rest. split; [exact R|]. split; [exact M|]. split; [reflexivity|].
    destruct (_ && _); cbn in E; now inversion E.
  - intros (c & nx & k & rest & R & M & U & ->). exists c, nx. split; [exact R|]. split; [exact M|].
    rewrite U. destruct (_ && _); reflexivity.
Qed.

(* the header an error names is present and NO chain from `first` leads to it *)
Theorem walk_err_unreferenced e first x : next_header e first = Err x ->
  match x with
  | ExtNotReferenced m =>
    exists k, ip_number_of k = m /\ is_some (get_nh e k) = true /\
              forall chain next, referenced (get_nh e) first chain next -> ~ In k (map fst chain)
  | HopByHopNotAtStart =>
    is_some (get_nh e KHopByHop) = true /\
    (forall chain next, referenced (get_nh e) first chain next -> ~ In KHopByHop (map fst chain)) /\
    exists chain, chain <> [] /\ referenced (get_nh e) first chain (ip_number_of KHopByHop)
  end.
Proof.
  intros H. apply walk_err_iff_chain in H. destruct H as (c & nx & k & rest & R & M & U & ->).
  assert (I : In k (unreferenced (get_nh e) c)) by (rewrite U; now left).
  apply unreferenced_In in I. destruct I as [[a G] NI].
  assert (NR : forall chain next, referenced (get_nh e) first chain next -> ~ In k (map fst chain)).
  { intros c' n' R' I. destruct (referenced_in_maximal _ _ _ _ _ _ R' R M) as [d ->].
    apply NI. rewrite map_app. apply in_or_app. now left. }
  unfold error_of. destruct (nx =? ip_number_of KHopByHop) eqn:E0; cbn [andb].
  - destruct (kind_eqb k KHopByHop) eqn:EK.
    + apply kind_eqb_eq in EK. subst k. split; [now rewrite G|]. split; [exact NR|].
      apply N.eqb_eq in E0. subst nx. exists c. split; [|exact R].
      intros ->. apply (M KHopByHop a). repeat split; auto.
    + exists k. split; [reflexivity|]. split; [now rewrite G|exact NR].
  - exists k. split; [reflexivity|]. split; [now rewrite G|exact NR].
Qed.

(* chains in the (recommended) RFC 8200 order are accepted ... *)
Theorem rfc_order_walks e first n :
  linked first (in_rfc_order (get_nh e)) n -> next_header e first = Ok n.
Proof.
  intros L. apply walk_ok_iff_chain. exists (in_rfc_order (get_nh e)).
  split; [apply Permutation_refl|]. split; [|exact L].
  apply slot_order_rfc, get_nh_final_routing.
Qed.

(* ------------------------------------------------------------------ *)
(* write and next_header agree; an error names a header that exists *)

(* C12_write_iff_walk *)
Theorem write_iff_walk e first : exts6_valid e = true ->
  match next_header e first with
  | Ok n => snd (write e first) = Ok tt
  | Err x => snd (write e first) = Err x
  | Panic | OutOfFuel => False
  end.
Proof.
  intros V. destruct (walk_exact e first) as (c & nx & _ & _ & E & W).
  rewrite E, (W V). destruct (verdict (get_nh e) c nx); reflexivity.
Qed.

Theorem error_truth e first x : next_header e first = Err x -> error_true e x.
Proof.
  intros H. apply walk_err_unreferenced in H. destruct x as [|m]; cbn [error_true].
  - destruct H as [H _]. cbn [get_nh] in H. now rewrite is_some_map in H.
  - destruct H as (k & E & G & _). exists k. auto.
Qed.

(* ------------------------------------------------------------------ *)
(* bytes written = header_len *)

Definition opt_len {A} (l : A -> N) (o : option A) : N :=
  match o with Some a => l a | None => 0 end.

Definition pending_len (e : Exts6) (f : Flags) : N :=
  (if fl_hop_by_hop_options f then opt_len raw_header_len (hop_by_hop_options e) else 0)
  + (if fl_destination_options f then opt_len raw_header_len (destination_options e) else 0)
  + (if fl_routing f then opt_len (fun r => raw_header_len (rt_routing r)) (routing e) else 0)
  + (if fl_fragment f then opt_len frag_header_len (fragment e) else 0)
  + (if fl_auth f then opt_len auth_header_len (auth e) else 0)
  + (if fl_final_destination_options f
     then opt_len (fun r => opt_len raw_header_len (rt_final_destination_options r)) (routing e)
     else 0).

Lemma check_all_done_ok {A} f (a b : A) : check_all_done f a = Ok b ->
  a = b /\ f = mkFlags false false false false false false.
Proof.
  unfold check_all_done. destruct f as [[] [] [] [] [] []]; cbn; try discriminate.
  intros H; inversion H; auto.
Qed.

(* the length of the header at a position *)
Definition len_at (e : Exts6) (k : ext_kind) : N :=
  match k with
  | KHopByHop => opt_len raw_header_len (hop_by_hop_options e)
  | KDestOpts => opt_len raw_header_len (destination_options e)
  | KRouting => opt_len (fun r => raw_header_len (rt_routing r)) (routing e)
  | KFragment => opt_len frag_header_len (fragment e)
  | KAuth => opt_len auth_header_len (auth e)
  | KFinalDestOpts => opt_len (fun r => opt_len raw_header_len (rt_final_destination_options r)) (routing e)
  end.

Lemma pending_len_clr e f k : flag f k = true -> pending_len e f = len_at e k + pending_len e (clr k f).
Proof. intros F. destruct k; cbn [flag] in F; unfold pending_len; cbn; rewrite F; lia. Qed.

Lemma to_bytes_at_len e k bs : exts6_valid e = true -> to_bytes_at e k = Some bs -> len bs = len_at e k.
Proof.
  intros V. pose proof (exts6_valid_inv e V) as (Vh & Vd & Vr & Vf & Va). destruct k; cbn [to_bytes_at len_at opt_len].
  - destruct (hop_by_hop_options e) as [h|]; [|discriminate]. now apply raw_to_bytes_len.
  - destruct (destination_options e) as [h|]; [|discriminate]. now apply raw_to_bytes_len.
  - destruct (routing e) as [r|]; [|discriminate]. apply raw_to_bytes_len, (routing_valid_inv r Vr).
  - destruct (fragment e) as [h|]; [|discriminate]. now intros [= <-].
  - destruct (auth e) as [h|]; [|discriminate]. now apply auth_to_bytes_len.
  - destruct (routing e) as [r|]; [|discriminate]. destruct (routing_valid_inv r Vr) as [_ Vfd]. cbn [opt_len].
    destruct (rt_final_destination_options r) as [h|]; [|discriminate]. now apply raw_to_bytes_len.
Qed.

Lemma write_loop_len fuel : forall e nw next rw w bs,
  exts6_valid e = true ->
  write_loop fuel e nw next rw w = (bs, Ok tt) ->
  len bs = len w + pending_len e nw.
Proof.
  induction fuel as [|fuel IH]; intros e nw next rw w bs V W; [discriminate|].
  rewrite write_loop_unfold in W.
  assert (Done : (w, @check_all_done unit nw tt) = (bs, Ok tt) -> len bs = len w + pending_len e nw).
  { intros H. inversion H as [[H1 H2]]. apply check_all_done_ok in H2. destruct H2 as [_ ->].
    unfold pending_len. cbn. lia. }
  destruct (sel rw next) as [k|]; [|destruct (hop_stop nw next); [discriminate|now apply Done]].
  destruct (flag nw k) eqn:F; [|now apply Done].
  destruct (get_nh e k); [|discriminate]. destruct (to_bytes_at e k) as [tb|] eqn:T; [|discriminate].
  apply IH in W; [|assumption].
  rewrite W, len_app, (to_bytes_at_len e k tb V T), (pending_len_clr e nw k F). lia.
Qed.

Lemma pending_len_init e : pending_len e (flags_init e) = header_len e.
Proof.
  unfold pending_len, flags_init, header_len. cbn.
  destruct (hop_by_hop_options e), (destination_options e), (routing e) as [[rt [fd|]]|],
    (fragment e), (auth e); cbn; lia.
Qed.

(* C12_write_len *)
Theorem write_len e first bs : exts6_valid e = true ->
  write e first = (bs, Ok tt) -> len bs = header_len e.
Proof.
  intros V W. unfold write in W. rewrite <- pending_len_init.
  destruct (IPV6_HOP_BY_HOP =? first).
  - destruct (hop_by_hop_options e) as [h|] eqn:Eh.
    + pose proof (exts6_valid_inv e V) as (Vh & _). rewrite Eh in Vh. cbn [opt_valid] in Vh.
      destruct (raw_to_bytes h) as [tb|] eqn:Et; [|discriminate].
      apply write_loop_len in W; [|assumption]. rewrite W, (raw_to_bytes_len h tb) by assumption.
      unfold pending_len, clr_hop, flags_init. cbn. rewrite Eh. cbn. lia.
    + apply write_loop_len in W; [|assumption]. rewrite W. cbn. lia.
  - apply write_loop_len in W; [|assumption]. rewrite W. cbn. lia.
Qed.

(* ------------------------------------------------------------------ *)
(* from_slice on the written bytes retraces write_internal *)

(* the headers write_internal has already emitted = what from_slice has
   decoded at the same point *)
Definition done (e : Exts6) (f : Flags) : Exts6 :=
  mkExts6
    (if fl_hop_by_hop_options f then None else hop_by_hop_options e)
    (if fl_destination_options f then None else destination_options e)
    (if fl_routing f then None
     else match routing e with
          | Some r => Some (mkRouting (rt_routing r)
                              (if fl_final_destination_options f then None
                               else rt_final_destination_options r))
          | None => None
          end)
    (if fl_fragment f then None else fragment e)
    (if fl_auth f then None else auth e).

Definition has_final (e : Exts6) : bool :=
  match routing e with Some r => is_some (rt_final_destination_options r) | None => false end.

(* route_written says that the routing header is out; the final destination
   options are only touched afterwards *)
Definition Inv (e : Exts6) (f : Flags) (rw : bool) : Prop :=
  rw = negb (fl_routing f) && is_some (routing e) /\
  (fl_routing f = true -> fl_final_destination_options f = has_final e).

Lemma Inv_init e : Inv e (flags_init e) false.
Proof.
  unfold Inv, flags_init, has_final. cbn. split; [|reflexivity].
  destruct (routing e); reflexivity.
Qed.

Lemma Inv_clr_hop e f rw : Inv e f rw -> Inv e (clr_hop f) rw.
Proof. unfold Inv, clr_hop. cbn. tauto. Qed.
Lemma Inv_clr_dst e f rw : Inv e f rw -> Inv e (clr_dst f) rw.
Proof. unfold Inv, clr_dst. cbn. tauto. Qed.
Lemma Inv_clr_frag e f rw : Inv e f rw -> Inv e (clr_frag f) rw.
Proof. unfold Inv, clr_frag. cbn. tauto. Qed.
Lemma Inv_clr_auth e f rw : Inv e f rw -> Inv e (clr_auth f) rw.
Proof. unfold Inv, clr_auth. cbn. tauto. Qed.
Lemma Inv_clr_routing e f rw r : routing e = Some r -> Inv e f rw -> Inv e (clr_routing f) true.
Proof. unfold Inv, clr_routing. cbn. intros -> _. split; [reflexivity|discriminate]. Qed.
Lemma Inv_clr_final e f : Inv e f true -> Inv e (clr_final f) true.
Proof.
  unfold Inv, clr_final. cbn. intros [I1 I2]. split; [assumption|].
  intros R. rewrite R in I1. discriminate.
Qed.

Lemma Inv_true e f : Inv e f true -> fl_routing f = false.
Proof. unfold Inv. intros [I _]. destruct (fl_routing f); [discriminate|reflexivity]. Qed.

Lemma Inv_false_routing e f : Inv e f false -> routing (done e f) = None.
Proof.
  unfold Inv, done. cbn. intros [I _].
  destruct (fl_routing f); [reflexivity|]. destruct (routing e); [discriminate|reflexivity].
Qed.

Lemma done_init e : done e (flags_init e) = exts6_default.
Proof.
  unfold done, flags_init, exts6_default. cbn.
  destruct (hop_by_hop_options e), (destination_options e), (routing e), (fragment e), (auth e); reflexivity.
Qed.

Lemma done_init_hop e h : hop_by_hop_options e = Some h ->
  done e (clr_hop (flags_init e)) = set_hop exts6_default h.
Proof.
  intros E. unfold done, flags_init, clr_hop, set_hop, exts6_default. cbn. rewrite E.
  destruct (destination_options e), (routing e), (fragment e), (auth e); reflexivity.
Qed.

Lemma done_all e : done e (mkFlags false false false false false false) = e.
Proof. destruct e as [? ? [[? ?]|] ? ?]; reflexivity. Qed.

(* [done e nw] field by field, and storing the next header of e in it *)
Lemma routing_done e nw : routing (done e nw) =
  if fl_routing nw then None
  else match routing e with
       | Some r => Some (mkRouting (rt_routing r)
                           (if fl_final_destination_options nw then None else rt_final_destination_options r))
       | None => None
       end.
Proof. reflexivity. Qed.

Lemma destination_options_done e nw :
  destination_options (done e nw) = if fl_destination_options nw then None else destination_options e.
Proof. reflexivity. Qed.

Lemma fragment_done e nw : fragment (done e nw) = if fl_fragment nw then None else fragment e.
Proof. reflexivity. Qed.

Lemma auth_done e nw : auth (done e nw) = if fl_auth nw then None else auth e.
Proof. reflexivity. Qed.

Lemma done_set_dst e nw h : destination_options e = Some h -> set_dst (done e nw) h = done e (clr_dst nw).
Proof. intros M. unfold done, set_dst, clr_dst. cbn. rewrite M. reflexivity. Qed.

Lemma done_set_frag e nw h : fragment e = Some h -> set_frag (done e nw) h = done e (clr_frag nw).
Proof. intros M. unfold done, set_frag, clr_frag. cbn. rewrite M. reflexivity. Qed.

Lemma done_set_auth e nw h : auth e = Some h -> set_auth (done e nw) h = done e (clr_auth nw).
Proof. intros M. unfold done, set_auth, clr_auth. cbn. rewrite M. reflexivity. Qed.

Lemma done_set_final e nw re h : fl_routing nw = false -> routing e = Some re ->
  rt_final_destination_options re = Some h ->
  set_routing (done e nw) (mkRouting (rt_routing re) (Some h)) = done e (clr_final nw).
Proof. intros FR ER MF. unfold done, set_routing, clr_final. cbn. rewrite FR, ER, MF. reflexivity. Qed.

Lemma done_set_routing e nw re : routing e = Some re -> fl_final_destination_options nw = has_final e ->
  set_routing (done e nw) (mkRouting (rt_routing re) None) = done e (clr_routing nw).
Proof.
  intros ER I. unfold has_final in I. rewrite ER in I. unfold done, set_routing, clr_routing. cbn.
  rewrite ER, I. destruct (rt_final_destination_options re); reflexivity.
Qed.

(* what is left of the decoding once every header of e is read back and the written bytes are
   used up is the decoder on the empty rest *)
Lemma from_slice_mirror_any fuel : forall e nw next rw w bs n slice,
  exts6_valid e = true -> Inv e nw rw ->
  write_loop fuel e nw next rw w = (bs, Ok tt) ->
  next_header_loop fuel e nw next rw = Ok n ->
  exists suf R, bs = w ++ suf /\ from_slice_loop fuel slice (done e nw) suf next = R /\
                exists f', R = from_slice_loop (S f') slice e [] n.
Proof.
  induction fuel as [|fuel IH]; intros e nw next rw w bs n slice V I W H; [discriminate|].
  pose proof (exts6_valid_inv e V) as (Vh & Vd & Vr & Vf & Va).
  assert (Brk : (w, @check_all_done unit nw tt) = (bs, Ok tt) -> check_all_done nw next = Ok n ->
                exists suf R, bs = w ++ suf /\ from_slice_loop (S fuel) slice (done e nw) suf next = R /\
                              exists f', R = from_slice_loop (S f') slice e [] n).
  { intros W' C. inversion W' as [[W1 W2]]. apply check_all_done_ok in C. destruct C as [-> Hf].
    exists [], (from_slice_loop (S fuel) slice e [] n). split; [now rewrite app_nil_r|].
    split; [now rewrite Hf, done_all|]. exists fuel. reflexivity. }
  cbn [write_loop next_header_loop] in W, H.
  destruct (arm_of_cases next) as [[A Nx]|[[A Nx]|[[A Nx]|[[A Nx]|[[A Nx]|[A Nx]]]]]];
    rewrite A in W, H.
  - destruct (fl_hop_by_hop_options nw); [discriminate|]. now apply Brk.
  - destruct rw.
    + destruct (fl_final_destination_options nw) eqn:Ef; [|now apply Brk].
      destruct (routing e) as [r|] eqn:Er; [|discriminate].
      destruct (rt_final_destination_options r) as [h|] eqn:Eh; [|discriminate].
      cbn [opt_valid] in Vr. apply routing_valid_inv in Vr. destruct Vr as [_ Vfin].
      rewrite Eh in Vfin. cbn [opt_valid] in Vfin.
      rewrite raw_to_bytes_valid in W by assumption.
      destruct (IH _ _ _ _ _ _ _ slice V (Inv_clr_final _ _ I) W H) as (suf & R & -> & D & F).
      eexists. exists R. split; [symmetry; apply app_assoc|]. split; [|exact F].
      cbn [from_slice_loop]. rewrite A.
      pose proof (Inv_true _ _ I) as Rf.
      rewrite routing_done, Rf, Er, Ef. cbn [rt_final_destination_options is_some rt_routing].
      rewrite read_raw_written by assumption. cbn [bind].
      now rewrite (done_set_final e nw r h Rf Er Eh).
    + destruct (fl_destination_options nw) eqn:Ef; [|now apply Brk].
      destruct (destination_options e) as [h|] eqn:Eh; [|discriminate].
      cbn [opt_valid] in Vd.
      rewrite raw_to_bytes_valid in W by assumption.
      destruct (IH _ _ _ _ _ _ _ slice V (Inv_clr_dst _ _ _ I) W H) as (suf & R & -> & D & F).
      eexists. exists R. split; [symmetry; apply app_assoc|]. split; [|exact F].
      cbn [from_slice_loop]. rewrite A.
      rewrite (Inv_false_routing _ _ I).
      rewrite destination_options_done, Ef. cbn [is_some].
      rewrite read_raw_written by assumption. cbn [bind].
      now rewrite (done_set_dst e nw h Eh).
  - destruct (fl_routing nw) eqn:Ef; [|now apply Brk].
    destruct (routing e) as [r|] eqn:Er; [|discriminate].
    cbn [opt_valid] in Vr. apply routing_valid_inv in Vr. destruct Vr as [Vrt _].
    rewrite raw_to_bytes_valid in W by assumption.
    destruct (IH _ _ _ _ _ _ _ slice V (Inv_clr_routing _ _ _ _ Er I) W H) as (suf & R & -> & D & F).
    eexists. exists R. split; [symmetry; apply app_assoc|]. split; [|exact F].
    cbn [from_slice_loop]. rewrite A.
    rewrite routing_done, Ef. cbn [is_some].
    rewrite read_raw_written by assumption. cbn [bind].
    now rewrite (done_set_routing e nw r Er (proj2 I Ef)).
  - destruct (fl_fragment nw) eqn:Ef; [|now apply Brk].
    destruct (fragment e) as [h|] eqn:Eh; [|discriminate].
    cbn [opt_valid] in Vf.
    destruct (IH _ _ _ _ _ _ _ slice V (Inv_clr_frag _ _ _ I) W H) as (suf & R & -> & D & F).
    eexists. exists R. split; [symmetry; apply app_assoc|]. split; [|exact F].
    cbn [from_slice_loop]. rewrite A.
    rewrite fragment_done, Ef. cbn [is_some].
    rewrite read_frag_written by assumption. cbn [bind].
    now rewrite (done_set_frag e nw h Eh).
  - destruct (fl_auth nw) eqn:Ef; [|now apply Brk].
    destruct (auth e) as [h|] eqn:Eh; [|discriminate].
    cbn [opt_valid] in Va.
    rewrite auth_to_bytes_valid in W by assumption.
    destruct (IH _ _ _ _ _ _ _ slice V (Inv_clr_auth _ _ _ I) W H) as (suf & R & -> & D & F).
    eexists. exists R. split; [symmetry; apply app_assoc|]. split; [|exact F].
    cbn [from_slice_loop]. rewrite A.
    rewrite auth_done, Ef. cbn [is_some].
    rewrite read_auth_written by assumption. cbn [bind].
    now rewrite (done_set_auth e nw h Eh).
  - now apply Brk.
Qed.

Lemma from_slice_mirror fuel : forall e nw next rw w bs n slice,
  exts6_valid e = true -> Inv e nw rw ->
  write_loop fuel e nw next rw w = (bs, Ok tt) ->
  next_header_loop fuel e nw next rw = Ok n ->
  is_ext_number n = false ->
  exists suf, bs = w ++ suf /\ from_slice_loop fuel slice (done e nw) suf next = Ok (e, n, []).
Proof.
  intros e nw next rw w bs n slice V I W H X.
  destruct (from_slice_mirror_any fuel e nw next rw w bs n slice V I W H) as (suf & R & Hb & D & f' & ->).
  exists suf. split; [exact Hb|]. rewrite D. cbn [from_slice_loop]. now rewrite (arm_of_other n X).
Qed.

(* first = 0 without a hop-by-hop header: the loop stops at once, which is Ok only for the empty set *)
Lemma walk_hop_absent e n : hop_by_hop_options e = None ->
  next_header_loop LOOP_FUEL e (flags_init e) IPV6_HOP_BY_HOP false = Ok n ->
  n = IPV6_HOP_BY_HOP /\ flags_init e = mkFlags false false false false false false.
Proof.
  intros Eh H. change LOOP_FUEL with (S 5) in H. rewrite nh_loop_unfold in H.
  change (sel false IPV6_HOP_BY_HOP) with (@None ext_kind) in H.
  unfold hop_stop in H. unfold flags_init in H at 1. cbn [fl_hop_by_hop_options] in H.
  rewrite Eh, andb_false_r in H. apply check_all_done_ok in H. destruct H as [<- Hf]. auto.
Qed.

(* C12_decode_write *)
Theorem decode_write e first bs n : exts6_valid e = true ->
  write e first = (bs, Ok tt) -> next_header e first = Ok n -> is_ext_number n = false ->
  from_slice first bs = Ok (e, n, []).
Proof.
  intros V W H X. unfold write in W. unfold next_header in H. unfold from_slice.
  destruct (IPV6_HOP_BY_HOP =? first) eqn:E0.
  - destruct (hop_by_hop_options e) as [h|] eqn:Eh.
    + pose proof (exts6_valid_inv e V) as (Vh & _). rewrite Eh in Vh. cbn [opt_valid] in Vh.
      rewrite raw_to_bytes_valid in W by assumption.
      destruct (from_slice_mirror _ _ _ _ _ _ _ _ bs V (Inv_clr_hop _ _ _ (Inv_init e)) W H X) as (suf & Hb & D).
      subst bs. rewrite read_raw_written by assumption. cbn [bind].
      rewrite <- (done_init_hop e h Eh). exact D.
    + exfalso. apply N.eqb_eq in E0. subst first.
      apply (walk_hop_absent e n Eh) in H. destruct H as [-> _]. discriminate.
  - destruct (from_slice_mirror _ _ _ _ _ _ _ _ bs V (Inv_init e) W H X) as (suf & Hb & D).
    cbn [app] in Hb. subst suf. rewrite done_init in D. exact D.
Qed.

(* ------------------------------------------------------------------ *)
(* set_next_headers links the chain in RFC 8200 order and the walkers follow it *)

Theorem set_next_headers_linked e n :
  linked (snd (set_next_headers e n)) (in_rfc_order (get_nh (fst (set_next_headers e n)))) n.
Proof.
  destruct e as [[h|] [d|] [[rt [fd|]]|] [fr|] [a|]]; cbn; repeat split; reflexivity.
Qed.

(* ... keeps the struct in range and its length, and hands back a protocol number *)
Lemma set_next_headers_facts x n : exts6_valid x = true -> n < 256 ->
  exts6_valid (fst (set_next_headers x n)) = true /\
  snd (set_next_headers x n) < 256 /\
  header_len (fst (set_next_headers x n)) = header_len x.
Proof.
  intros V Hn. apply exts6_valid_inv in V. destruct V as (Vh & Vd & Vr & Vf & Va).
  assert (K : forall m, m = n \/ m = IPV6_DEST_OPTIONS \/ m = AUTH \/ m = IPV6_FRAG
                        \/ m = IPV6_ROUTE \/ m = IPV6_HOP_BY_HOP -> m < 256).
  { intros m [E|[E|[E|[E|[E|E]]]]]; subst m; try exact Hn; reflexivity. }
  destruct x as [[h|] [d|] [[rt [fd|]]|] [fr|] [a|]];
    cbn [opt_valid hop_by_hop_options destination_options routing fragment auth] in Vh, Vd, Vr, Vf, Va;
    try (apply routing_valid_inv in Vr; destruct Vr as [Vrt Vfd];
         cbn [opt_valid rt_routing rt_final_destination_options] in Vrt, Vfd);
    unfold set_next_headers; cbn;
    (split; [|split; [apply K; tauto|reflexivity]]);
    unfold exts6_valid, routing_valid; cbn;
    rewrite ?raw_set_valid, ?frag_set_valid, ?auth_set_valid by (try assumption; apply K; tauto);
    reflexivity.
Qed.

(* C12_link_walks *)
Theorem link_walks e n : is_ext_number n = false ->
  next_header (fst (set_next_headers e n)) (snd (set_next_headers e n)) = Ok n.
Proof. intros _. apply rfc_order_walks, set_next_headers_linked. Qed.

Local Arguments raw_wire_bytes : simpl never.
Local Arguments frag_wire_bytes : simpl never.
Local Arguments auth_wire_bytes : simpl never.
Local Arguments raw_to_bytes : simpl never.
Local Arguments frag_to_bytes : simpl never.
Local Arguments auth_to_bytes : simpl never.

(* set_next_headers only touches next_header fields, which to_bytes copies unchecked *)
Lemma linked_wire_ok e n : exts6_valid e = true -> wire_ok (fst (set_next_headers e n)).
Proof.
  intros V. apply exts6_valid_inv in V. destruct V as (Vh & Vd & Vr & Vf & Va).
  destruct e as [[h|] [d|] [[rt [fd|]]|] [fr|] [a|]];
    cbn [opt_valid hop_by_hop_options destination_options routing fragment auth] in Vh, Vd, Vr, Vf, Va;
    try (apply routing_valid_inv in Vr; destruct Vr as [Vrt Vfd];
         cbn [opt_valid rt_routing rt_final_destination_options] in Vrt, Vfd);
    intros k nh G; destruct k; try discriminate G; unfold wire_at; cbn;
    rewrite ?raw_to_bytes_set, ?frag_to_bytes_set, ?auth_to_bytes_set by assumption; reflexivity.
Qed.

Lemma get_wire_nh e k : is_some (get_wire e k) = is_some (get_nh e k).
Proof.
  destruct k; cbn; rewrite ?is_some_map; try reflexivity.
  destruct (routing e); [now rewrite !is_some_map|reflexivity].
Qed.

Lemma wire_bytes_present e : wire_bytes e (present_kinds e) = rfc_order_bytes e.
Proof.
  unfold wire_bytes, present_kinds, rfc_order_bytes, in_rfc_order.
  induction rfc8200_order as [|k l IH]; [reflexivity|]. cbn [flat_map].
  rewrite !map_app, !concat_app, IH. f_equal.
  pose proof (get_wire_nh e k) as G.
  destruct (get_nh e k) as [nh|]; destruct (get_wire e k) as [b|] eqn:W; try discriminate G; [|reflexivity].
  cbn [map fst snd concat]. unfold wire_at. now rewrite W.
Qed.

(* the serialised chain is the RFC 8200 order *)
Theorem link_write_order e n : exts6_valid e = true -> is_ext_number n = false ->
  write (fst (set_next_headers e n)) (snd (set_next_headers e n))
  = (rfc_order_bytes (fst (set_next_headers e n)), Ok tt).
Proof.
  intros V _. pose proof (set_next_headers_linked e n) as L.
  set (e' := fst (set_next_headers e n)) in *. set (first := snd (set_next_headers e n)) in *.
  assert (C : complete_chain (get_nh e') first (in_rfc_order (get_nh e')) n).
  { split; [apply Permutation_refl|]. split; [apply slot_order_rfc, get_nh_final_routing|exact L]. }
  pose proof (complete_maximal _ _ _ _ C) as M'. apply complete_chain_iff in C. destruct C as [R' U].
  destruct (walk_exact_wire e' first) as (c & nx & R & M & _ & W).
  destruct (maximal_unique _ _ _ _ _ _ R M R' M') as [-> ->].
  rewrite (W (linked_wire_ok e n V)). fold (present_kinds e'). rewrite wire_bytes_present.
  f_equal. apply unit_of_verdict_ok. exists n. apply verdict_ok. auto.
Qed.

(* ------------------------------------------------------------------ *)
(* Ipv4Extensions *)

Theorem walk4_exact e first : exists chain next,
  referenced (get_nh4 e) first chain next /\ maximal (get_nh4 e) chain next /\
  next_header4 e first = res_of_verdict (verdict (get_nh4 e) chain next) /\
  (exts4_valid e = true ->
   write4 e first = (wire_bytes4 e (map fst chain), unit_of_verdict (verdict (get_nh4 e) chain next))).
Proof.
  destruct e as [[a|]]; unfold next_header4, write4; cbn [auth4].
  - rewrite (N.eqb_sym AUTH first). destruct (first =? AUTH) eqn:E.
    + apply N.eqb_eq in E. exists [(KAuth, a_next_header a)], (a_next_header a).
      split.
      { apply (referenced_snoc _ _ []). exists first. split; [apply referenced_nil|]. split; [|reflexivity].
        repeat split; auto. }
      split.
      { intros k nh (_ & G & NI & _). destruct k; try discriminate G. apply NI. now left. }
      split; [reflexivity|].
      intros V. cbn in V. rewrite auth_to_bytes_valid, auth_wire by assumption.
      unfold wire_bytes4. cbn [map fst concat get_wire4 option_map auth4]. rewrite app_nil_r. reflexivity.
    + exists [], first. split; [apply referenced_nil|]. split.
      { intros k nh (E1 & G & _). destruct k; try discriminate G. cbn in E1. subst first. discriminate. }
      unfold verdict. cbn. rewrite andb_false_r. split; reflexivity.
  - exists [], first. split; [apply referenced_nil|]. split.
    { intros k nh (_ & G & _). destruct k; discriminate G. }
    split; reflexivity.
Qed.

Theorem walk4_verdict_iff e first r :
  next_header4 e first = r <->
  exists chain next, referenced (get_nh4 e) first chain next /\ maximal (get_nh4 e) chain next /\
                     r = res_of_verdict (verdict (get_nh4 e) chain next).
Proof. exact (verdict_iff _ _ _ _ _ (walk4_exact e) first r). Qed.

Theorem walk4_ok_iff_chain e first n :
  next_header4 e first = Ok n <-> exists chain, complete_chain (get_nh4 e) first chain n.
Proof. exact (ok_iff_chain _ _ _ _ _ (walk4_exact e) first n). Qed.

Theorem write4_ok_iff_chain e first bs : exts4_valid e = true ->
  (write4 e first = (bs, Ok tt) <->
   exists chain n, complete_chain (get_nh4 e) first chain n /\ next_header4 e first = Ok n /\
                   bs = wire_bytes4 e (map fst chain)).
Proof. exact (wr_ok_iff_chain _ _ _ _ _ (walk4_exact e) first bs). Qed.

(* the only error: an authentication header that the protocol field does not announce *)
Theorem walk4_err_iff e first x :
  next_header4 e first = Err x <->
  x = ExtNotReferenced (ip_number_of KAuth) /\ is_some (auth4 e) = true /\ first <> ip_number_of KAuth.
Proof.
  unfold next_header4. destruct (auth4 e) as [a|]; cbn [is_some].
  - change (ip_number_of KAuth) with AUTH. destruct (first =? AUTH) eqn:E.
    + apply N.eqb_eq in E. split; [discriminate|]. intros (_ & _ & H). contradiction.
    + apply N.eqb_neq in E. split; [intros H; inversion H; auto|intros (-> & _); reflexivity].
  - split; [discriminate|]. intros (_ & H & _). discriminate.
Qed.

Theorem write4_iff_walk e first : exts4_valid e = true ->
  match next_header4 e first with
  | Ok n => snd (write4 e first) = Ok tt
  | Err x => snd (write4 e first) = Err x
  | Panic | OutOfFuel => False
  end.
Proof.
  intros V. unfold next_header4, write4. destruct e as [[a|]]; cbn in *; [|reflexivity].
  rewrite (N.eqb_sym first AUTH). destruct (AUTH =? first); [|reflexivity].
  now rewrite auth_to_bytes_valid.
Qed.

Lemma write4_bytes_ok e first : exts4_valid e = true -> bytes_ok (fst (write4 e first)).
Proof.
  unfold exts4_valid, write4. destruct (auth4 e) as [a|]; cbn [opt_valid]; intros V; [|apply Forall_nil].
  destruct (AUTH =? first); [|apply Forall_nil].
  destruct (auth_to_bytes a) as [bs|] eqn:E; [|apply Forall_nil]. exact (auth_to_bytes_ok a bs V E).
Qed.

Theorem write4_len e first bs : exts4_valid e = true ->
  write4 e first = (bs, Ok tt) -> len bs = header_len4 e.
Proof.
  intros V. unfold write4, header_len4. destruct e as [[a|]]; cbn in *.
  - destruct (AUTH =? first); [|discriminate].
    rewrite auth_to_bytes_valid by assumption. intros H; inversion H. now apply auth_bytes_len.
  - intros H; inversion H. reflexivity.
Qed.

(* Ipv4Extensions: the round trip fails only for the empty set with first = 51 *)
Theorem decode_write4_any e first bs n : exts4_valid e = true ->
  write4 e first = (bs, Ok tt) -> next_header4 e first = Ok n ->
  from_slice4 first bs =
  if is_some (auth4 e) || negb (n =? ip_number_of KAuth) then Ok (e, n, [])
  else Err (ALen (mkLenError 12 0 LIpAuthHeader 0)).
Proof.
  intros V. unfold write4, next_header4, from_slice4.
  change (ip_number_of KAuth) with AUTH.
  destruct e as [[a|]]; cbn in *.
  - rewrite (N.eqb_sym first AUTH). destruct (AUTH =? first); [|discriminate].
    rewrite auth_to_bytes_valid by assumption. intros W H. inversion W; subst bs. inversion H; subst n.
    rewrite <- (app_nil_r (auth_bytes a)) at 1. rewrite auth_slice_written by assumption. cbn [bind].
    rewrite <- (app_nil_r (auth_bytes a)) at 1. rewrite slice_from_app.
    change (auth_slice_next_header (auth_bytes a)) with (Some (a_next_header a)).
    rewrite auth_slice_to_header_written by assumption. reflexivity.
  - intros W H. inversion W; subst bs. inversion H; subst n.
    rewrite (N.eqb_sym AUTH first). destruct (first =? AUTH); reflexivity.
Qed.

Theorem decode_write4 e first bs n : exts4_valid e = true ->
  write4 e first = (bs, Ok tt) -> next_header4 e first = Ok n -> is_ext_number_v4 n = false ->
  from_slice4 first bs = Ok (e, n, []).
Proof.
  intros V W H X. rewrite (decode_write4_any e first bs n V W H).
  unfold is_ext_number_v4 in X. now rewrite X, orb_true_r.
Qed.

Theorem link_walks4 e n :
  next_header4 (fst (set_next_headers4 e n)) (snd (set_next_headers4 e n)) = Ok n.
Proof. destruct e as [[a|]]; reflexivity. Qed.

Theorem set_next_headers4_linked e n :
  linked (snd (set_next_headers4 e n)) (in_rfc_order (get_nh4 (fst (set_next_headers4 e n)))) n.
Proof. destruct e as [[a|]]; cbn; repeat split; reflexivity. Qed.

Theorem link_write_order4 e n : exts4_valid e = true ->
  write4 (fst (set_next_headers4 e n)) (snd (set_next_headers4 e n))
  = (rfc_order_bytes4 (fst (set_next_headers4 e n)), Ok tt).
Proof.
  intros V. destruct e as [[a|]]; cbn in *; [|reflexivity].
  unfold write4. cbn. change (AUTH =? AUTH) with true. cbn.
  rewrite auth_to_bytes_set by assumption. unfold rfc_order_bytes4. cbn. now rewrite app_nil_r.
Qed.

(* ------------------------------------------------------------------ *)
(* IpHeaders / NetHeaders *)

Theorem ip_set_next_headers_ether_type h n :
  snd (ip_set_next_headers h n) = ether_type_of_version h.
Proof.
  destruct h as [p ol ex|x ex]; cbn.
  - destruct (set_next_headers4 ex n); reflexivity.
  - destruct (set_next_headers ex n); reflexivity.
Qed.

Theorem net_try_set_next_headers_ether_type h n :
  net_try_set_next_headers (net_of_ip h) n
  = (net_of_ip (fst (ip_set_next_headers h n)), Ok (ether_type_of_version h)).
Proof.
  destruct h as [p ol ex|x ex]; cbn.
  - destruct (set_next_headers4 ex n); reflexivity.
  - destruct (set_next_headers ex n); reflexivity.
Qed.

Theorem net_try_set_next_headers_arp n :
  net_try_set_next_headers NetArp n = (NetArp, Err ArpHeader).
Proof. reflexivity. Qed.

Theorem ip_link_walks h n : ip_is_ext h n = false ->
  ip_next_header (fst (ip_set_next_headers h n)) = Ok n.
Proof.
  destruct h as [p ol ex|x ex]; cbn; intros X.
  - pose proof (link_walks4 ex n) as L. destruct (set_next_headers4 ex n) as [ex' f]. cbn in *.
    now rewrite L.
  - pose proof (link_walks ex n X) as L. destruct (set_next_headers ex n) as [ex' f]. cbn in *.
    now rewrite L.
Qed.

Theorem error_truth4 e first x : next_header4 e first = Err x ->
  x = ExtNotReferenced (ip_number_of KAuth) /\ is_some (auth4 e) = true.
Proof.
  unfold next_header4. destruct (auth4 e); [|discriminate].
  destruct (first =? AUTH); [discriminate|]. intros H; inversion H. split; reflexivity.
Qed.

