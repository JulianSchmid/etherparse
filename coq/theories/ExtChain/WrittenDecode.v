(* ExtChain/WrittenDecode.v -- "decoding the written bytes yields the same set and final number"
   for EVERY decoder of the written bytes, not only for the strict `from_slice`:
     Ipv6Extensions::from_slice_lax, ::read (over a Cursor), ::read_limited (LimitedReader
     whose budget is the written length, over a source that may go on with further bytes),
   and the Ipv4Extensions analogues.  The lax / reader theorems ask for a byte string
   (`bytes_ok`); that the written bytes are one is Proofs.write_bytes_ok / write4_bytes_ok. *)
From Coq Require Import ZArith Lia ZifyN ZifyBool.
From EP Require Import Base.Bytes Base.Lists IoFault.Spec IoFault.Model.
From EP Require Import ExtChain.Spec ExtChain.Model ExtChain.View ExtChain.Proofs.
From EP Require Import ExtChain.WalkSpec ExtChain.WalkView ExtChain.WalkProofs ExtChain.DecodeTotal.
From EP Require Import ExtChain.ReadModel ExtChain.ReadView ExtChain.ReadProofs.
From EP Require Import ExtChain.ChainView ExtChain.DecodeWriteAny.
Local Open Scope N_scope.

(* ---------------- IPv6 ---------------- *)
(* every decoder, on the byte string bs, answers (e, n) and consumes everything *)
Definition all_decoders6 (first : N) (bs : bytes) (e : Exts6) (n : N) : Prop :=
  bytes_ok bs /\
  from_slice first bs = Ok (e, n, []) /\
  from_slice_lax first bs = Ok (e, n, [], None) /\
  (exists s', read6 false first (mk_rstate (cursor bs) None) = (QOk (e, n), mk_rstate s' None) /\
              src_data s' = [] /\ src_pulled s' = len bs) /\
  (forall c p r tail, 1 <= c -> bytes_ok tail ->
     lr_read r <= lr_max r -> lr_max r - lr_read r = len bs ->
     exists m', read6 true first (mk_st (bs ++ tail) c p (MLim r))
                  = (QOk (e, n), mk_st tail c (p + len bs) m') /\
                view tail m' = [] /\ lim_of m' = true).

Lemma decoders_agree6 first bs e n : bytes_ok bs ->
  from_slice first bs = Ok (e, n, []) -> all_decoders6 first bs e n.
Proof.
  intros OK H. split; [exact OK|]. split; [exact H|]. split; [|split].
  - pose proof (from_slice_never_panics first bs OK) as T. rewrite H in T. exact T.
  - destruct (read6_cursor first bs e n [] OK H) as (s' & R & D & P).
    exists s'. split; [exact R|]. split; [exact D|]. rewrite len_nil in P. lia.
  - intros c p r tail Hc OKt Hr Hb.
    assert (OKd : bytes_ok (bs ++ tail)) by (apply bytes_ok_app; split; assumption).
    assert (Hm : m_ok (bs ++ tail) (MLim r)).
    { cbn [m_ok]. split; [exact Hr|]. rewrite Hb, len_app. lia. }
    assert (Hv : view (bs ++ tail) (MLim r) = bs).
    { unfold view. cbn [avail]. rewrite Hb. apply take_app_exact. }
    rewrite <- Hv in H.
    destruct (read6_eq_from_slice (bs ++ tail) c p (MLim r) first e n [] Hc OKd Hm H)
      as (m' & k & E & K & R & V & _ & LM).
    rewrite Hv in E. cbn [avail] in K. rewrite Hb in K.
    assert (Hk : k = len bs).
    { pose proof (f_equal len E) as X. rewrite app_nil_r, len_take in X. lia. }
    subst k. rewrite drop_app_exact in R, V.
    exists m'. split; [exact R|]. split; [exact V|]. exact LM.
Qed.

Theorem written_decoders6 e first bs n : exts6_valid e = true ->
  write e first = (bs, Ok tt) -> next_header e first = Ok n ->
  (is_ext_number n = false \/ decide false (present_kinds e) n = DRefilled) ->
  all_decoders6 first bs e n.
Proof.
  intros V W H C. apply decoders_agree6.
  - pose proof (write_bytes_ok e first V) as B. rewrite W in B. exact B.
  - apply (proj2 (decode_write_iff e first bs n V W H)). exact C.
Qed.

(* ---------------- IPv4 ---------------- *)
Definition all_decoders4 (first : N) (bs : bytes) (e : Exts4) (n : N) : Prop :=
  bytes_ok bs /\
  from_slice4 first bs = Ok (e, n, []) /\
  from_slice_lax4 first bs = Ok (e, n, [], None) /\
  (exists s', read4 false first (mk_rstate (cursor bs) None) = (QOk (e, n), mk_rstate s' None) /\
              src_data s' = [] /\ src_pulled s' = len bs) /\
  (forall c p r tail, 1 <= c -> bytes_ok tail ->
     lr_read r <= lr_max r -> lr_max r - lr_read r = len bs ->
     exists m', read4 true first (mk_st (bs ++ tail) c p (MLim r))
                  = (QOk (e, n), mk_st tail c (p + len bs) m') /\
                view tail m' = [] /\ lim_of m' = true).

Lemma decoders_agree4 first bs e n : bytes_ok bs ->
  from_slice4 first bs = Ok (e, n, []) -> all_decoders4 first bs e n.
Proof.
  intros OK H. split; [exact OK|]. split; [exact H|]. split; [|split].
  - destruct (from_slice4_total first bs OK) as (S & L & _).
    rewrite S in H. rewrite L. unfold strict4_of_walk in H. unfold lax4_of_walk. cbv zeta.
    destruct (w_stop (ref_walk4 first bs)); try discriminate; injection H as <- <- <-; reflexivity.
  - destruct (read4_cursor first bs e n [] OK H) as (s' & R & D & P).
    exists s'. split; [exact R|]. split; [exact D|]. rewrite len_nil in P. lia.
  - intros c p r tail Hc OKt Hr Hb.
    assert (OKd : bytes_ok (bs ++ tail)) by (apply bytes_ok_app; split; assumption).
    assert (Hm : m_ok (bs ++ tail) (MLim r)).
    { cbn [m_ok]. split; [exact Hr|]. rewrite Hb, len_app. lia. }
    assert (Hv : view (bs ++ tail) (MLim r) = bs).
    { unfold view. cbn [avail]. rewrite Hb. apply take_app_exact. }
    rewrite <- Hv in H.
    destruct (read4_eq_from_slice (bs ++ tail) c p (MLim r) first e n [] Hc OKd Hm H)
      as (m' & k & E & K & R & V & _ & LM).
    rewrite Hv in E. cbn [avail] in K. rewrite Hb in K.
    assert (Hk : k = len bs).
    { pose proof (f_equal len E) as X. rewrite app_nil_r, len_take in X. lia. }
    subst k. rewrite drop_app_exact in R, V.
    exists m'. split; [exact R|]. split; [exact V|]. exact LM.
Qed.

(* the round trip fails only for the empty set with first = 51 (decode_write4_any) *)
Theorem written_decoders4 e first bs n : exts4_valid e = true ->
  write4 e first = (bs, Ok tt) -> next_header4 e first = Ok n ->
  (is_some (auth4 e) || negb (n =? ip_number_of KAuth))%bool = true ->
  all_decoders4 first bs e n.
Proof.
  intros V W H C. apply decoders_agree4.
  - pose proof (write4_bytes_ok e first V) as B. rewrite W in B. exact B.
  - rewrite (decode_write4_any e first bs n V W H), C. reflexivity.
Qed.
