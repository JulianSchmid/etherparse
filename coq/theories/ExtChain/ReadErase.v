(* ExtChain/ReadErase.v -- the value-carrying readers of ReadModel.v against the read PROGRAMS
   of C16 (IoFault/Model.v: ipv6_raw_ext_read, ipv6_frag_read, ip_auth_read, x6_read, x4_read
   run by run_r): same reader calls in the same order, same final reader state, same verdict;
   the program's summary [next number; mask of filled positions] is the erasure of the value.
   Hence what C16 (fault behaviour of every read program) and C06 (Equiv/ReadChain.v:
   read = from_slice for the program x6_read) prove about the programs holds for read6 / read4. *)
From EP Require Import Base.Bytes IoFault.Spec IoFault.Model IoFault.Proofs
  ExtChain.Spec ExtChain.Model ExtChain.View ExtChain.Proofs
  ExtChain.WalkSpec ExtChain.WalkView ExtChain.WalkProofs
  ExtChain.ReadModel ExtChain.ReadView ExtChain.ReadProofs.
From Coq Require Import ZArith Lia ZifyN ZifyBool.
Local Open Scope N_scope.

Definition chunk_ok (st : rstate) : Prop := 1 <= src_chunk (rs_src st).

Definition qmap_pair {A B} (f : A -> B) (r : qres A * rstate) : qres B * rstate :=
  (qmap f (fst r), snd r).

Lemma qmap_pair_qbind {A B C} (g : B -> C) (r : qres A * rstate) k :
  qmap_pair g (qbind r k) = qbind r (fun a st => qmap_pair g (k a st)).
Proof. destruct r as [[a|e|e|c| | |] st]; reflexivity. Qed.

Lemma qbind_ext {A B} (r : qres A * rstate) (k1 k2 : A -> rstate -> qres B * rstate) :
  (forall a st, r = (QOk a, st) -> k1 a st = k2 a st) -> qbind r k1 = qbind r k2.
Proof. destruct r as [[a|e|e|c| | |] st]; intros H; try reflexivity. cbn. apply H. reflexivity. Qed.

(* ---- the two reader primitives ---- *)
Lemma run_PRead_cps n k st :
  run_r (PRead n k) st = qbind (rd_exact st n) (fun bs st' => run_r (k bs) st').
Proof.
  cbn [run_r]. unfold rd_exact. destruct (rs_lim st) as [r|].
  - destruct (lr_read_exact r (rs_src st) n) as [[[bs|e|e|c| | |] r'] s']; reflexivity.
  - destruct (io_read_exact (rs_src st) n) as [[bs|e| |] s']; reflexivity.
Qed.

Lemma run_start_cps lim layer k st :
  run_r (with_start lim layer k) st = qbind (start_layer lim layer st) (fun _ st' => run_r k st').
Proof.
  unfold with_start, start_layer. destruct lim; [|reflexivity].
  cbn [run_r]. destruct (rs_lim st) as [r|]; [|reflexivity].
  destruct (lr_start_layer r layer); reflexivity.
Qed.

Lemma rd_exact_shape st n bs st' : chunk_ok st -> rd_exact st n = (QOk bs, st') -> len bs = n /\ chunk_ok st'.
Proof.
  unfold chunk_ok, rd_exact. intros Hc. destruct (rs_lim st) as [r|].
  - unfold lr_read_exact. destruct (checked_sub (lr_max r) (lr_read r)) as [rem|]; [|discriminate].
    destruct (rem <? n); [discriminate|].
    rewrite io_read_exact_spec by exact Hc. unfold spec_read_exact.
    destruct (n <=? len (src_data (rs_src st))) eqn:E; cbn [fst snd xres_of]; [|discriminate].
    apply N.leb_le in E. intros H. injection H as <- <-. cbn [rs_src src_chunk app].
    split; [rewrite len_take; lia|exact Hc].
  - rewrite io_read_exact_spec by exact Hc. unfold spec_read_exact.
    destruct (n <=? len (src_data (rs_src st))) eqn:E; cbn [fst snd xres_of]; [|discriminate].
    apply N.leb_le in E. intros H. injection H as <- <-. cbn [rs_src src_chunk app].
    split; [rewrite len_take; lia|exact Hc].
Qed.

Lemma start_layer_shape lim layer st u st' : chunk_ok st -> start_layer lim layer st = (QOk u, st') -> chunk_ok st'.
Proof.
  unfold chunk_ok, start_layer. intros Hc. destruct lim.
  - destruct (rs_lim st) as [r|]; [|discriminate]. destruct (lr_start_layer r layer); [|discriminate].
    intros H. injection H as _ <-. exact Hc.
  - intros H. injection H as _ <-. exact Hc.
Qed.

(* ---- the three header readers ---- *)
Lemma raw_erase lim k st :
  run_r (ipv6_raw_ext_read lim k) st = qbind (raw_read lim st) (fun h st' => run_r (k (r_next_header h)) st').
Proof.
  unfold ipv6_raw_ext_read, raw_read. rewrite run_start_cps.
  destruct (start_layer lim L_IPV6EXT st) as [[u|e|e|c| | |] st1]; try reflexivity. cbn [qbind].
  rewrite run_PRead_cps. destruct (rd_exact st1 2) as [[d|e|e|c| | |] st2]; try reflexivity. cbn [qbind].
  unfold at_. destruct (rd d 0) as [nh|]; [|reflexivity]. destruct (rd d 1) as [hl|]; [|reflexivity].
  rewrite run_PRead_cps. destruct (rd_exact st2 (hl * 8 + 6)) as [[pl|e|e|c| | |] st3]; reflexivity.
Qed.

Lemma raw_read_chunk lim st h st' : chunk_ok st -> raw_read lim st = (QOk h, st') -> chunk_ok st'.
Proof.
  intros Hc. unfold raw_read.
  destruct (start_layer lim L_IPV6EXT st) as [[u|e|e|c| | |] st1] eqn:S; try discriminate. cbn [qbind].
  pose proof (start_layer_shape _ _ _ _ _ Hc S) as Hc1.
  destruct (rd_exact st1 2) as [[d|e|e|c| | |] st2] eqn:R1; try discriminate. cbn [qbind].
  destruct (rd_exact_shape _ _ _ _ Hc1 R1) as [_ Hc2].
  destruct (rd d 0) as [nh|]; [|discriminate]. destruct (rd d 1) as [hl|]; [|discriminate].
  destruct (rd_exact st2 (hl * 8 + 6)) as [[pl|e|e|c| | |] st3] eqn:R2; try discriminate. cbn [qbind].
  destruct (rd_exact_shape _ _ _ _ Hc2 R2) as [_ Hc3]. intros H. injection H as _ <-. exact Hc3.
Qed.

Lemma frag_erase lim k st : chunk_ok st ->
  run_r (ipv6_frag_read lim k) st = qbind (frag_read lim st) (fun h st' => run_r (k (f_next_header h)) st').
Proof.
  intros Hc. unfold ipv6_frag_read, frag_read. rewrite run_start_cps.
  destruct (start_layer lim L_IPV6FRAG st) as [[u|e|e|c| | |] st1] eqn:S; try reflexivity. cbn [qbind].
  pose proof (start_layer_shape _ _ _ _ _ Hc S) as Hc1.
  rewrite run_PRead_cps. destruct (rd_exact st1 8) as [[b|e|e|c| | |] st2] eqn:R1; try reflexivity. cbn [qbind].
  destruct (rd_exact_shape _ _ _ _ Hc1 R1) as [L8 _].
  destruct (@frag_to_header_spec unit b L8) as (h & _ & TH & R0). rewrite TH. cbn [qbind].
  unfold at_. rewrite R0. reflexivity.
Qed.

Lemma frag_read_chunk lim st h st' : chunk_ok st -> frag_read lim st = (QOk h, st') -> chunk_ok st'.
Proof.
  intros Hc. unfold frag_read.
  destruct (start_layer lim L_IPV6FRAG st) as [[u|e|e|c| | |] st1] eqn:S; try discriminate. cbn [qbind].
  pose proof (start_layer_shape _ _ _ _ _ Hc S) as Hc1.
  destruct (rd_exact st1 8) as [[b|e|e|c| | |] st2] eqn:R1; try discriminate. cbn [qbind].
  destruct (rd_exact_shape _ _ _ _ Hc1 R1) as [_ Hc2].
  destruct (@frag_slice_to_header unit b); try discriminate. intros H. injection H as _ <-. exact Hc2.
Qed.

Lemma auth_erase lim k st : chunk_ok st ->
  run_r (ip_auth_read lim k) st = qbind (auth_read lim st) (fun h st' => run_r (k (a_next_header h)) st').
Proof.
  intros Hc. unfold ip_auth_read, auth_read. rewrite run_start_cps.
  destruct (start_layer lim L_AUTH st) as [[u|e|e|c| | |] st1] eqn:S; try reflexivity. cbn [qbind].
  pose proof (start_layer_shape _ _ _ _ _ Hc S) as Hc1.
  rewrite run_PRead_cps. destruct (rd_exact st1 12) as [[b|e|e|c| | |] st2] eqn:R1; try reflexivity. cbn [qbind].
  destruct (rd_exact_shape _ _ _ _ Hc1 R1) as [L12 _].
  destruct b as [|b0 [|b1 [|b2 [|b3 [|b4 [|b5 [|b6 [|b7 [|b8 [|b9 [|b10 [|b11 t]]]]]]]]]]]];
    try (rewrite ?len_cons, ?len_nil in L12; lia).
  unfold at_. rewrite rd0, rd1, rd4, rd5, rd6, rd7, rd8, rd9, rd10, rd11.
  destruct (b1 <? 1); [reflexivity|].
  rewrite run_PRead_cps. destruct (rd_exact st2 ((b1 - 1) * 4)) as [[icv|e|e|c| | |] st3]; reflexivity.
Qed.

Lemma auth_read_chunk lim st h st' : chunk_ok st -> auth_read lim st = (QOk h, st') -> chunk_ok st'.
Proof.
  intros Hc. unfold auth_read.
  destruct (start_layer lim L_AUTH st) as [[u|e|e|c| | |] st1] eqn:S; try discriminate. cbn [qbind].
  pose proof (start_layer_shape _ _ _ _ _ Hc S) as Hc1.
  destruct (rd_exact st1 12) as [[b|e|e|c| | |] st2] eqn:R1; try discriminate. cbn [qbind].
  destruct (rd_exact_shape _ _ _ _ Hc1 R1) as [_ Hc2].
  destruct (rd b 0), (rd b 1), (rd b 4), (rd b 5), (rd b 6), (rd b 7), (rd b 8), (rd b 9), (rd b 10), (rd b 11);
    try discriminate.
  destruct (_ <? 1); [discriminate|].
  destruct (rd_exact st2 _) as [[icv|e|e|c| | |] st3] eqn:R2; try discriminate. cbn [qbind].
  destruct (rd_exact_shape _ _ _ _ Hc2 R2) as [_ Hc3]. intros H. injection H as _ <-. exact Hc3.
Qed.

(* ---- the loop ---- *)
Definition free_e (e : Exts6) : nat :=
  (fb (is_some (destination_options e)) + fb (is_some (routing e))
   + fb (match routing e with Some r => is_some (rt_final_destination_options r) | None => false end)
   + fb (is_some (fragment e)) + fb (is_some (auth e)))%nat.

Lemma free_e_le5 e : (free_e e <= 5)%nat.
Proof. unfold free_e, fb. repeat match goal with |- context[if ?b then _ else _] => destruct b end; lia. Qed.

Lemma loop_erase f1 : forall f2 lim result n st, chunk_ok st ->
  (free_e result < f1)%nat -> (free_e result < f2)%nat ->
  run_r (x6_read_loop f2 lim (slots_of result) n) st = qmap_pair summary6 (read6_loop f1 lim result n st).
Proof.
  induction f1 as [|f1 IH]; intros f2 lim result n st Hc F1 F2; [lia|].
  destruct f2 as [|f2]; [lia|].
  cbn [x6_read_loop read6_loop].
  unfold arm_of, IoFault.Model.IPV6_HOP_BY_HOP, IoFault.Model.IPV6_DEST_OPTIONS, IoFault.Model.IPV6_ROUTE,
    IoFault.Model.IPV6_FRAG, IoFault.Model.AUTH, IPV6_HOP_BY_HOP, IPV6_DEST_OPTIONS, IPV6_ROUTE, IPV6_FRAG, AUTH.
  change (s_hop (slots_of result)) with (is_some (hop_by_hop_options result)).
  change (s_dest (slots_of result)) with (is_some (destination_options result)).
  change (s_route (slots_of result)) with (is_some (routing result)).
  change (s_final (slots_of result))
    with (match routing result with Some r => is_some (rt_final_destination_options r) | None => false end).
  change (s_frag (slots_of result)) with (is_some (fragment result)).
  change (s_auth (slots_of result)) with (is_some (auth result)).
  destruct (n =? 0) eqn:E0; [reflexivity|].
  destruct (n =? 60) eqn:E60.
  { destruct (routing result) as [rt|] eqn:ER; cbn [is_some].
    -
      destruct (is_some (rt_final_destination_options rt)) eqn:EF; [unfold qmap_pair, summary6, slots_of; cbn [qmap fst snd run_r]; rewrite ?ER, ?EF, ?ED, ?EA; reflexivity|].
      rewrite raw_erase. rewrite qmap_pair_qbind. apply qbind_ext. intros h st' E.
      replace (mk_slots _ _ _ true _ _) with (slots_of (set_routing result (mkRouting (rt_routing rt) (Some h))))
        by (unfold slots_of, set_routing; cbn; rewrite ?ER; reflexivity).
      apply IH; [exact (raw_read_chunk _ _ _ _ Hc E)| |];
        unfold free_e, set_routing in *; cbn; rewrite ER in *; rewrite EF in *; cbn [fb is_some] in *; lia.
    - destruct (is_some (destination_options result)) eqn:ED; [unfold qmap_pair, summary6, slots_of; cbn [qmap fst snd run_r]; rewrite ?ER, ?EF, ?ED, ?EA; reflexivity|].
      rewrite raw_erase. rewrite qmap_pair_qbind. apply qbind_ext. intros h st' E.
      replace (mk_slots _ true _ _ _ _) with (slots_of (set_dst result h))
        by (unfold slots_of, set_dst; cbn; rewrite ?ER; reflexivity).
      apply IH; [exact (raw_read_chunk _ _ _ _ Hc E)| |];
        unfold free_e, set_dst in *; cbn; rewrite ER in *; rewrite ED in *; cbn [fb is_some] in *; lia. }
  destruct (n =? 43) eqn:E43.
  { destruct (is_some (routing result)) eqn:ER; [unfold qmap_pair, summary6, slots_of; cbn [qmap fst snd run_r]; rewrite ?ER, ?EF, ?ED, ?EA; reflexivity|].
    rewrite raw_erase. rewrite qmap_pair_qbind. apply qbind_ext. intros h st' E.
    apply is_some_none in ER.
    replace (mk_slots _ _ true _ _ _) with (slots_of (set_routing result (mkRouting h None)))
      by (unfold slots_of, set_routing; cbn; rewrite ?ER; reflexivity).
    apply IH; [exact (raw_read_chunk _ _ _ _ Hc E)| |];
      unfold free_e, set_routing in *; cbn; rewrite ER in *; cbn [fb is_some] in *; lia. }
  destruct (n =? 44) eqn:E44.
  { destruct (is_some (fragment result)) eqn:EF; [unfold qmap_pair, summary6, slots_of; cbn [qmap fst snd run_r]; rewrite ?ER, ?EF, ?ED, ?EA; reflexivity|].
    rewrite frag_erase by exact Hc. rewrite qmap_pair_qbind. apply qbind_ext. intros h st' E.
    replace (mk_slots _ _ _ _ true _) with (slots_of (set_frag result h))
      by (unfold slots_of, set_frag; cbn; reflexivity).
    apply IH; [exact (frag_read_chunk _ _ _ _ Hc E)| |];
      unfold free_e, set_frag in *; cbn; rewrite EF in *; cbn [fb is_some] in *; lia. }
  destruct (n =? 51) eqn:E51.
  { destruct (is_some (auth result)) eqn:EA; [unfold qmap_pair, summary6, slots_of; cbn [qmap fst snd run_r]; rewrite ?ER, ?EF, ?ED, ?EA; reflexivity|].
    rewrite auth_erase by exact Hc. rewrite qmap_pair_qbind. apply qbind_ext. intros h st' E.
    replace (mk_slots _ _ _ _ _ true) with (slots_of (set_auth result h))
      by (unfold slots_of, set_auth; cbn; reflexivity).
    apply IH; [exact (auth_read_chunk _ _ _ _ Hc E)| |];
      unfold free_e, set_auth in *; cbn; rewrite EA in *; cbn [fb is_some] in *; lia. }
  reflexivity.
Qed.

(* Ipv6Extensions::read / read_limited: the value-carrying model run = C16's program run *)
Theorem read6_erase lim first st : chunk_ok st ->
  run_r (x6_read lim first) st = qmap_pair summary6 (read6 lim first st).
Proof.
  intros Hc. unfold x6_read, read6, IoFault.Model.IPV6_HOP_BY_HOP, IPV6_HOP_BY_HOP.
  destruct (0 =? first).
  - rewrite raw_erase. rewrite qmap_pair_qbind. apply qbind_ext. intros h st' E.
    change (mk_slots true false false false false false) with (slots_of (set_hop exts6_default h)).
    apply loop_erase; [exact (raw_read_chunk _ _ _ _ Hc E)| |]; cbn; unfold X6_READ_FUEL, LOOP_FUEL; lia.
  - change no_slots with (slots_of exts6_default).
    apply loop_erase; [exact Hc| |]; cbn; unfold X6_READ_FUEL, LOOP_FUEL; lia.
Qed.

Theorem read4_erase lim first st : chunk_ok st ->
  run_r (x4_read lim first) st = qmap_pair summary4 (read4 lim first st).
Proof.
  intros Hc. unfold x4_read, read4, IoFault.Model.AUTH, AUTH. destruct (51 =? first); [|reflexivity].
  rewrite auth_erase by exact Hc. rewrite qmap_pair_qbind. apply qbind_ext. intros h st' E. reflexivity.
Qed.
