(* ExtChain/ReadProofs.v -- Ipv6Extensions::read / read_limited and Ipv4Extensions::read /
   read_limited of ReadModel.v give the struct and number from_slice gives on the bytes the
   reader can deliver, leave the reader behind the chain, and never reach QBad / QUnderflow /
   QFuel.  Reader lemmas of C16 (IoFault/Proofs.v: io_read_exact_ok/_fail,
   lr_read_exact_within/_len) are used as they are. *)
From EP Require Import Base.Bytes Base.Lists IoFault.Spec IoFault.Model IoFault.Proofs
  ExtChain.Spec ExtChain.Model ExtChain.View ExtChain.Proofs
  ExtChain.WalkSpec ExtChain.WalkView ExtChain.WalkProofs ExtChain.WriteBack ExtChain.DecodeTotal
  ExtChain.ReadModel ExtChain.ReadView.
From Coq Require Import ZArith Lia ZifyN ZifyBool.
Local Open Scope N_scope.

(* ---- lists ---- *)
Lemma drop_0 {A} (l : list A) : drop 0 l = l.
Proof. reflexivity. Qed.

(* ---- reader modes ---- *)
Definition m_start (m : rmode) (layer : N) : rmode :=
  match m with
  | MPlain => MPlain
  | MLim r => MLim (mk_limrd (lr_max r - lr_read r) (lr_source r) layer (lr_off r + lr_read r) 0)
  end.

Definition m_adv (m : rmode) (n : N) : rmode :=
  match m with
  | MPlain => MPlain
  | MLim r => MLim (mk_limrd (lr_max r) (lr_source r) (lr_layer r) (lr_off r) (lr_read r + n))
  end.

(* after a complete header of n bytes read in layer `layer` *)
Definition m_done (m : rmode) (layer n : N) : rmode :=
  match m with
  | MPlain => MPlain
  | MLim r => MLim (mk_limrd (lr_max r - lr_read r) (lr_source r) layer (lr_off r + lr_read r) n)
  end.

(* a read_exact that asks for n bytes more than are available *)
Definition m_fail {A} (m : rmode) (n : N) : qres A :=
  match m with
  | MPlain => QIo KEof
  | MLim r => QLen (mk_lenerr (lr_read r + n) (lr_max r) (lr_source r) (lr_layer r) (lr_off r))
  end.

Lemma start_layer_st d c p m layer : m_ok d m ->
  start_layer (lim_of m) layer (mk_st d c p m) = (QOk tt, mk_st d c p (m_start m layer)).
Proof.
  destruct m as [|r]; cbn [lim_of start_layer m_start]; [reflexivity|].
  intros [H1 _]. unfold mk_st. cbn [rs_lim rs_src]. unfold lr_start_layer, checked_sub.
  replace (lr_read r <=? lr_max r) with true by (symmetry; apply N.leb_le; lia). reflexivity.
Qed.

Lemma rd_exact_ok d c p m n : 1 <= c -> m_ok d m -> n <= avail d m ->
  rd_exact (mk_st d c p m) n = (QOk (take n d), mk_st (drop n d) c (p + n) (m_adv m n)).
Proof.
  intros Hc Hok Hn. destruct m as [|r]; unfold rd_exact, mk_st; cbn [rs_lim rs_src avail m_adv] in *.
  - rewrite io_read_exact_ok by (cbn [src_chunk src_data]; lia). reflexivity.
  - destruct Hok as [H1 H2].
    rewrite lr_read_exact_within by (cbn [src_chunk src_data]; lia).
    cbn [src_data src_chunk src_err src_pulled].
    replace (n <=? len d) with true by (symmetry; apply N.leb_le; lia). reflexivity.
Qed.

Lemma rd_exact_fail d c p m n : 1 <= c -> m_ok d m -> avail d m < n ->
  fst (rd_exact (mk_st d c p m) n) = m_fail m n.
Proof.
  intros Hc Hok Hn. destruct m as [|r]; unfold rd_exact, mk_st; cbn [rs_lim rs_src avail m_fail] in *.
  - rewrite io_read_exact_fail by (cbn [src_chunk src_data]; lia). reflexivity.
  - destruct Hok as [H1 H2]. rewrite lr_read_exact_len by lia. reflexivity.
Qed.

Lemma m_ok_start d m layer : m_ok d m -> m_ok d (m_start m layer).
Proof. destruct m as [|r]; cbn; [auto|]. intros [H1 H2]. lia. Qed.

Lemma avail_start d m layer : m_ok d m -> avail d (m_start m layer) = avail d m.
Proof. destruct m as [|r]; cbn; [reflexivity|]. intros [H1 H2]. lia. Qed.

Lemma m_ok_adv d m n : m_ok d m -> n <= avail d m -> m_ok (drop n d) (m_adv m n).
Proof.
  destruct m as [|r]; cbn [m_ok m_adv avail lr_max lr_read]; [auto|].
  intros [H1 H2] H. rewrite len_drop. lia.
Qed.

Lemma avail_adv d m n : n <= avail d m -> avail (drop n d) (m_adv m n) = avail d m - n.
Proof.
  destruct m as [|r]; cbn [m_adv avail lr_max lr_read]; intros H; [apply len_drop|lia].
Qed.

Lemma avail_le d m : m_ok d m -> avail d m <= len d.
Proof. destruct m as [|r]; cbn; [lia|]. intros [H1 H2]. lia. Qed.

Lemma m_ok_done d m layer n : m_ok d m -> n <= avail d m -> m_ok (drop n d) (m_done m layer n).
Proof.
  destruct m as [|r]; cbn [m_ok m_done avail lr_max lr_read]; [auto|].
  intros [H1 H2] H. rewrite len_drop. lia.
Qed.

Lemma avail_done d m layer n : n <= avail d m -> avail (drop n d) (m_done m layer n) = avail d m - n.
Proof.
  destruct m as [|r]; cbn [m_done avail lr_max lr_read]; intros H; [apply len_drop|reflexivity].
Qed.

Lemma lim_of_done m layer n : lim_of (m_done m layer n) = lim_of m.
Proof. destruct m; reflexivity. Qed.

Lemma m_adv_start m layer n : m_adv (m_start m layer) n = m_done m layer n.
Proof. destruct m; reflexivity. Qed.

Lemma m_adv_done m layer a n : m_adv (m_done m layer a) n = m_done m layer (a + n).
Proof. destruct m; reflexivity. Qed.

Lemma view_len d m : m_ok d m -> len (view d m) = avail d m.
Proof. intros H. unfold view. apply len_take_le. apply avail_le. exact H. Qed.

Lemma view_done d m layer n : n <= avail d m ->
  drop n (view d m) = view (drop n d) (m_done m layer n).
Proof. intros H. unfold view. rewrite drop_take_sub, avail_done by exact H. reflexivity. Qed.

Lemma view_take d m n : n <= avail d m -> take n (view d m) = take n d.
Proof. intros H. unfold view. apply take_take. exact H. Qed.

(* the error a failing read_exact gives, r bytes into a layer that started with `left` bytes *)
Definition fail_at {A} (m : rmode) (layer required left : N) : qres A :=
  match m with
  | MPlain => QIo KEof
  | MLim r => QLen (mk_lenerr required left (lr_source r) layer (lr_off r + lr_read r))
  end.

Lemma m_fail_start {A} m layer n d : m_ok d m ->
  @m_fail A (m_start m layer) n = fail_at m layer n (avail d m).
Proof. destruct m as [|r]; cbn; [reflexivity|]. intros _. reflexivity. Qed.

Lemma m_fail_done {A} m layer a n d : m_ok d m ->
  @m_fail A (m_done m layer a) n = fail_at m layer (a + n) (avail d m).
Proof. destruct m as [|r]; cbn; [reflexivity|]. intros _. reflexivity. Qed.

(* ---- Ipv6RawExtHeader::read / read_limited ---- *)
Lemma raw_read_framed d c p m hb nh v' : 1 <= c -> bytes_ok d -> m_ok d m ->
  frame_options (view d m) = Framed hb nh v' ->
  exists h, raw_of_bytes hb = Some h /\ r_next_header h = nh /\ len hb <= avail d m /\ 8 <= len hb /\
    raw_read (lim_of m) (mk_st d c p m)
    = (QOk h, mk_st (drop (len hb) d) c (p + len hb) (m_done m L_IPV6EXT (len hb))) /\
    v' = view (drop (len hb) d) (m_done m L_IPV6EXT (len hb)).
Proof.
  intros Hc OK Hok F. pose proof (view_len d m Hok) as LV.
  apply frame_options_framed in F.
  destruct F as (hl & R1 & L8 & E & LH & R0 & R1' & ET & ED & LE). rewrite LV in L8, LE.
  rewrite view_take in ET by exact LE.
  pose proof (avail_le d m Hok) as AL.
  destruct d as [|d0 [|d1 t]]; try (rewrite ?len_cons, ?len_nil in AL; lia).
  rewrite take_S_cons in ET by lia. rewrite take_S_cons in ET by lia.
  replace ((hl + 1) * 8 - 1 - 1) with (hl * 8 + 6) in ET by lia.
  subst hb. change (rd (d0 :: d1 :: take (hl * 8 + 6) t) 0) with (Some d0) in R0.
  change (rd (d0 :: d1 :: take (hl * 8 + 6) t) 1) with (Some d1) in R1'.
  injection R0 as ->. injection R1' as ->.
  exists (mkRaw nh hl (take (hl * 8 + 6) t)). split; [reflexivity|]. split; [reflexivity|].
  split; [lia|]. split; [lia|].
  assert (DR : drop ((hl + 1) * 8) (nh :: hl :: t) = drop (hl * 8 + 6) t).
  { rewrite drop_S_cons by lia. rewrite drop_S_cons by lia. f_equal. lia. }
  split.
  - unfold raw_read. rewrite start_layer_st by exact Hok. cbn [qbind].
    pose proof (m_ok_start _ _ L_IPV6EXT Hok) as Hok1. pose proof (avail_start _ _ L_IPV6EXT Hok) as A1.
    rewrite rd_exact_ok by (try assumption; lia). cbn [qbind].
    change (take 2 (nh :: hl :: t)) with [nh; hl]. change (drop 2 (nh :: hl :: t)) with t.
    change (rd [nh; hl] 0) with (Some nh). change (rd [nh; hl] 1) with (Some hl). cbv iota beta.
    pose proof (m_ok_adv _ _ 2 Hok1 ltac:(lia)) as Hok2. change (drop 2 (nh :: hl :: t)) with t in Hok2.
    pose proof (avail_adv (nh :: hl :: t) (m_start m L_IPV6EXT) 2 ltac:(lia)) as A2.
    change (drop 2 (nh :: hl :: t)) with t in A2.
    rewrite rd_exact_ok by (try assumption; lia). cbn [qbind].
    rewrite LH, DR, m_adv_start, m_adv_done. do 2 f_equal; [lia|f_equal; lia].
  - rewrite ED, LH. apply view_done. exact LE.
Qed.

Lemma raw_read_fault d c p m x : 1 <= c -> m_ok d m ->
  frame_options (view d m) = Fault x ->
  exists rq, x = FLen rq /\
    fst (raw_read (lim_of m) (mk_st d c p m))
    = fail_at m L_IPV6EXT (match view d m with _ :: hl :: _ => (hl + 1) * 8 | _ => 2 end) (avail d m).
Proof.
  intros Hc Hok F. pose proof (view_len d m Hok) as LV. pose proof (avail_le d m Hok) as AL.
  assert (X : exists rq, x = FLen rq /\
     match view d m with _ :: hl :: _ => avail d m < (hl + 1) * 8 | _ => True end).
  { apply frame_options_fault in F. destruct F as [[L ->]|(hl & L8 & R1 & L & ->)].
    - exists 8. split; [reflexivity|]. destruct (view d m) as [|v0 [|hl t]]; auto. lia.
    - exists ((hl + 1) * 8). split; [reflexivity|]. destruct (view d m) as [|v0 [|hl' t]]; auto.
      change (rd (v0 :: hl' :: t) 1) with (Some hl') in R1. injection R1 as ->. lia. }
  destruct X as (rq & -> & X). exists rq. split; [reflexivity|].
  unfold raw_read. rewrite start_layer_st by exact Hok. cbn [qbind].
  pose proof (m_ok_start _ _ L_IPV6EXT Hok) as Hok1. pose proof (avail_start _ _ L_IPV6EXT Hok) as A1.
  destruct (N.lt_ge_cases (avail d m) 2) as [L2|L2].
  - (* not even the two fixed bytes *)
    pose proof (rd_exact_fail d c p (m_start m L_IPV6EXT) 2 Hc Hok1 ltac:(lia)) as Fl.
    destruct (rd_exact (mk_st d c p (m_start m L_IPV6EXT)) 2) as [q st]. cbn [fst] in Fl. subst q.
    destruct (view d m) as [|v0 [|hl t]] eqn:EV; try (rewrite ?len_cons, ?len_nil in LV; lia).
    + destruct m; reflexivity.
    + destruct m; reflexivity.
  - rewrite rd_exact_ok by (try assumption; lia). cbn [qbind].
    destruct d as [|d0 [|d1 t]]; try (rewrite ?len_cons, ?len_nil in AL; lia).
    assert (EV : exists t', view (d0 :: d1 :: t) m = d0 :: d1 :: t').
    { unfold view. rewrite take_S_cons by lia. rewrite take_S_cons by lia. eexists. reflexivity. }
    destruct EV as (t' & EV). rewrite EV in X |- *.
    change (take 2 (d0 :: d1 :: t)) with [d0; d1]. change (drop 2 (d0 :: d1 :: t)) with t.
    change (rd [d0; d1] 0) with (Some d0). change (rd [d0; d1] 1) with (Some d1). cbv iota beta.
    pose proof (m_ok_adv _ _ 2 Hok1 ltac:(lia)) as Hok2. change (drop 2 (d0 :: d1 :: t)) with t in Hok2.
    pose proof (avail_adv (d0 :: d1 :: t) (m_start m L_IPV6EXT) 2 ltac:(lia)) as A2.
    change (drop 2 (d0 :: d1 :: t)) with t in A2.
    pose proof (rd_exact_fail t c (p + 2) (m_adv (m_start m L_IPV6EXT) 2) (d1 * 8 + 6) Hc Hok2 ltac:(lia)) as Fl.
    destruct (rd_exact (mk_st t c (p + 2) (m_adv (m_start m L_IPV6EXT) 2)) (d1 * 8 + 6)) as [q st].
    cbn [fst] in Fl. subst q. rewrite m_adv_start.
    destruct m as [|r]; cbn; [reflexivity|]. do 2 f_equal. lia.
Qed.

(* ---- Ipv6FragmentHeader::read / read_limited ---- *)
Lemma frag_to_header_spec {E} hb : len hb = 8 ->
  exists h, frag_of_bytes hb = Some h /\ @frag_slice_to_header E hb = Ok h /\ rd hb 0 = Some (f_next_header h).
Proof.
  intros LH.
  destruct hb as [|b0 [|b1 [|b2 [|b3 [|b4 [|b5 [|b6 [|b7 [|b8 r]]]]]]]]]; try (rewrite ?len_cons, ?len_nil in LH; lia).
  eexists. split; [reflexivity|]. split; [|reflexivity].
  unfold frag_slice_to_header. rewrite rd0, rd2, rd3, rd4, rd5, rd6, rd7.
  rewrite shiftr3, odd_land1. reflexivity.
Qed.

Lemma frag_read_framed d c p m hb nh v' : 1 <= c -> m_ok d m ->
  frame_fragment (view d m) = Framed hb nh v' ->
  exists h, frag_of_bytes hb = Some h /\ f_next_header h = nh /\ len hb <= avail d m /\ 8 <= len hb /\
    frag_read (lim_of m) (mk_st d c p m)
    = (QOk h, mk_st (drop (len hb) d) c (p + len hb) (m_done m L_IPV6FRAG (len hb))) /\
    v' = view (drop (len hb) d) (m_done m L_IPV6FRAG (len hb)).
Proof.
  intros Hc Hok F. pose proof (view_len d m Hok) as LV.
  apply frame_fragment_framed in F. destruct F as (L8 & E & LH & R0 & ET & ED). rewrite LV in L8.
  rewrite view_take in ET by exact L8.
  destruct (@frag_to_header_spec unit hb LH) as (h & FB & TH & R0').
  exists h. split; [exact FB|]. split; [congruence|]. split; [lia|]. split; [lia|]. split.
  - unfold frag_read. rewrite start_layer_st by exact Hok. cbn [qbind].
    pose proof (m_ok_start _ _ L_IPV6FRAG Hok) as Hok1. pose proof (avail_start _ _ L_IPV6FRAG Hok) as A1.
    rewrite rd_exact_ok by (try assumption; lia). cbn [qbind]. rewrite <- ET, TH, LH, m_adv_start. reflexivity.
  - rewrite ED, LH. apply view_done. exact L8.
Qed.

Lemma frag_read_fault d c p m x : 1 <= c -> m_ok d m ->
  frame_fragment (view d m) = Fault x ->
  x = FLen 8 /\ fst (frag_read (lim_of m) (mk_st d c p m)) = fail_at m L_IPV6FRAG 8 (avail d m).
Proof.
  intros Hc Hok F. pose proof (view_len d m Hok) as LV.
  apply frame_fragment_fault in F. destruct F as [L ->]. rewrite LV in L. split; [reflexivity|].
  unfold frag_read. rewrite start_layer_st by exact Hok. cbn [qbind].
  pose proof (m_ok_start _ _ L_IPV6FRAG Hok) as Hok1. pose proof (avail_start _ _ L_IPV6FRAG Hok) as A1.
  pose proof (rd_exact_fail d c p (m_start m L_IPV6FRAG) 8 Hc Hok1 ltac:(lia)) as Fl.
  destruct (rd_exact (mk_st d c p (m_start m L_IPV6FRAG)) 8) as [q st]. cbn [fst] in Fl. subst q.
  destruct m; reflexivity.
Qed.

(* ---- IpAuthHeader::read / read_limited ---- *)
Lemma auth_read_framed d c p m hb nh v' : 1 <= c -> m_ok d m ->
  frame_auth (view d m) = Framed hb nh v' ->
  exists h, auth_of_bytes hb = Some h /\ a_next_header h = nh /\ len hb <= avail d m /\ 8 <= len hb /\
    auth_read (lim_of m) (mk_st d c p m)
    = (QOk h, mk_st (drop (len hb) d) c (p + len hb) (m_done m L_AUTH (len hb))) /\
    v' = view (drop (len hb) d) (m_done m L_AUTH (len hb)).
Proof.
  intros Hc Hok F. pose proof (view_len d m Hok) as LV. pose proof (avail_le d m Hok) as AL.
  apply frame_auth_framed in F.
  destruct F as (pl & R1 & L12 & P & E & LH & R0 & R1' & ET & ED & LE). rewrite LV in L12, LE.
  rewrite view_take in ET by exact LE.
  destruct d as [|b0 [|b1 [|b2 [|b3 [|b4 [|b5 [|b6 [|b7 [|b8 [|b9 [|b10 [|b11 t]]]]]]]]]]]];
    try (rewrite ?len_cons, ?len_nil in AL; lia).
  set (d := b0 :: b1 :: b2 :: b3 :: b4 :: b5 :: b6 :: b7 :: b8 :: b9 :: b10 :: b11 :: t) in *.
  assert (TK : take ((pl + 2) * 4) d = [b0; b1; b2; b3; b4; b5; b6; b7; b8; b9; b10; b11] ++ take ((pl - 1) * 4) t).
  { unfold d, take. replace (N.to_nat ((pl + 2) * 4)) with (12 + N.to_nat ((pl - 1) * 4))%nat by lia. reflexivity. }
  assert (DR : drop ((pl + 2) * 4) d = drop ((pl - 1) * 4) t).
  { unfold d, drop. replace (N.to_nat ((pl + 2) * 4)) with (12 + N.to_nat ((pl - 1) * 4))%nat by lia. reflexivity. }
  rewrite TK in ET. subst hb. cbn [app] in R0, R1'. rewrite rd0 in R0. rewrite rd1 in R1'.
  injection R0 as ->. injection R1' as ->.
  eexists. split; [reflexivity|]. split; [reflexivity|]. split; [lia|]. split; [lia|]. split.
  - unfold auth_read. rewrite start_layer_st by exact Hok. cbn [qbind].
    pose proof (m_ok_start _ _ L_AUTH Hok) as Hok1. pose proof (avail_start _ _ L_AUTH Hok) as A1.
    rewrite rd_exact_ok by (try assumption; lia). cbn [qbind].
    change (take 12 d) with [nh; pl; b2; b3; b4; b5; b6; b7; b8; b9; b10; b11]. change (drop 12 d) with t.
    rewrite rd0, rd1, rd4, rd5, rd6, rd7, rd8, rd9, rd10, rd11.
    destruct (pl <? 1) eqn:X; [apply N.ltb_lt in X; lia|].
    pose proof (m_ok_adv _ _ 12 Hok1 ltac:(lia)) as Hok2. change (drop 12 d) with t in Hok2.
    pose proof (avail_adv d (m_start m L_AUTH) 12 ltac:(lia)) as A2. change (drop 12 d) with t in A2.
    rewrite rd_exact_ok by (try assumption; lia). cbn [qbind].
    rewrite LH, DR, m_adv_start, m_adv_done. do 2 f_equal; [lia|f_equal; lia].
  - rewrite ED, LH. apply view_done. exact LE.
Qed.

Lemma auth_read_fault d c p m x : 1 <= c -> m_ok d m ->
  frame_auth (view d m) = Fault x ->
  fst (auth_read (lim_of m) (mk_st d c p m))
  = match x with
    | FLen rq => fail_at m L_AUTH rq (avail d m)
    | FAuthZeroLen => QContent CAuthZeroLen
    end.
Proof.
  intros Hc Hok F. pose proof (view_len d m Hok) as LV. pose proof (avail_le d m Hok) as AL.
  apply frame_auth_fault in F.
  unfold auth_read. rewrite start_layer_st by exact Hok. cbn [qbind].
  pose proof (m_ok_start _ _ L_AUTH Hok) as Hok1. pose proof (avail_start _ _ L_AUTH Hok) as A1.
  destruct F as [[L ->]|F].
  { rewrite LV in L.
    pose proof (rd_exact_fail d c p (m_start m L_AUTH) 12 Hc Hok1 ltac:(lia)) as Fl.
    destruct (rd_exact (mk_st d c p (m_start m L_AUTH)) 12) as [q st]. cbn [fst] in Fl. subst q.
    destruct m; reflexivity. }
  assert (L12 : 12 <= avail d m) by (destruct F as [(L & _)|(pl & L & _)]; lia).
  destruct d as [|b0 [|b1 [|b2 [|b3 [|b4 [|b5 [|b6 [|b7 [|b8 [|b9 [|b10 [|b11 t]]]]]]]]]]]];
    try (rewrite ?len_cons, ?len_nil in AL; lia).
  set (d := b0 :: b1 :: b2 :: b3 :: b4 :: b5 :: b6 :: b7 :: b8 :: b9 :: b10 :: b11 :: t) in *.
  assert (RV : rd (view d m) 1 = Some b1).
  { unfold view. rewrite rd_take_lt by lia. reflexivity. }
  rewrite rd_exact_ok by (try assumption; lia). cbn [qbind].
  change (take 12 d) with [b0; b1; b2; b3; b4; b5; b6; b7; b8; b9; b10; b11]. change (drop 12 d) with t.
  rewrite rd0, rd1, rd4, rd5, rd6, rd7, rd8, rd9, rd10, rd11.
  destruct F as [(_ & R1 & ->)|(pl & _ & R1 & P & L & ->)]; rewrite RV in R1; injection R1 as ->.
  - reflexivity.
  - destruct (pl <? 1) eqn:X; [apply N.ltb_lt in X; lia|].
    pose proof (m_ok_adv _ _ 12 Hok1 ltac:(lia)) as Hok2. change (drop 12 d) with t in Hok2.
    pose proof (avail_adv d (m_start m L_AUTH) 12 ltac:(lia)) as A2. change (drop 12 d) with t in A2.
    rewrite LV in L.
    pose proof (rd_exact_fail t c (p + 12) (m_adv (m_start m L_AUTH) 12) ((pl - 1) * 4) Hc Hok2 ltac:(lia)) as Fl.
    destruct (rd_exact (mk_st t c (p + 12) (m_adv (m_start m L_AUTH) 12)) ((pl - 1) * 4)) as [q st].
    cbn [fst] in Fl. subst q. rewrite m_adv_start.
    destruct m as [|r]; cbn; [reflexivity|]. do 2 f_equal. lia.
Qed.

(* ------------------------------------------------------------------ *)
(* the loop of Ipv6Extensions::read / read_limited against the walk over the visible bytes *)

(* answer = the walk's; on success the reader stands behind the consumed bytes and what it can
   still deliver is the walk's rest *)
Definition rpost {A} (d : bytes) (c p : N) (lm : bool) (w : walk) (expected : qres A) (r : qres A * rstate) : Prop :=
  fst r = expected /\
  (is_qok (fst r) = true ->
   exists m', snd r = mk_st (drop (len (consumed w)) d) c (p + len (consumed w)) m'
              /\ view (drop (len (consumed w)) d) m' = w_rest w /\ m_ok (drop (len (consumed w)) d) m'
              /\ lim_of m' = lm).

Lemma read_from_cons m layer e0 k hb w :
  read_from m e0 (mkWalk ((k, hb) :: w_chain w) (w_next w) (w_rest w) (w_stop w))
  = read_from (m_done m layer (len hb)) (place e0 (k, hb)) w.
Proof.
  unfold read_from, consumed. cbn [w_stop w_chain w_next w_rest map snd concat struct_from fold_left].
  destruct (w_stop w) as [| | |k' [rq|]|]; try reflexivity.
  destruct m as [|r]; cbn [m_done lr_source lr_off lr_read]; [reflexivity|].
  rewrite len_app. do 2 f_equal. lia.
Qed.

Lemma rpost_cons {A} d c p lm (k : ext_kind) hb (w : walk) (expected : qres A) r :
  rpost (drop (len hb) d) c (p + len hb) lm w expected r ->
  rpost d c p lm (mkWalk ((k, hb) :: w_chain w) (w_next w) (w_rest w) (w_stop w)) expected r.
Proof.
  unfold rpost, consumed. cbn [w_chain w_rest map snd concat]. intros [H1 H2]. split; [exact H1|].
  intros Q. destruct (H2 Q) as (m' & S & V & O & LM). exists m'.
  rewrite len_app, <- drop_drop, N.add_assoc. auto.
Qed.

Lemma rpost_stop {A} d c p m n (a : A) st : m_ok d m ->
  rpost d c p (lim_of m) (mkWalk [] n (view d m) st) (QOk a) (QOk a, mk_st d c p m).
Proof.
  intros O. unfold rpost, consumed. cbn. split; [reflexivity|]. intros _. exists m.
  rewrite N.add_0_r. auto.
Qed.

Lemma rpost_err {A} d c p lm w (q : qres A) (r : qres A * rstate) :
  fst r = q -> is_qok q = false -> rpost d c p lm w q r.
Proof. intros H1 H2. unfold rpost. split; [exact H1|]. rewrite H1, H2. discriminate. Qed.

Lemma qbind_fail {A B} (r : qres A * rstate) (k : A -> rstate -> qres B * rstate) (q : qres A) :
  fst r = q -> is_qok q = false ->
  fst (qbind r k) = match q with
                    | QOk _ => QBad | QIo e => QIo e | QLen e => QLen e | QContent x => QContent x
                    | QUnderflow => QUnderflow | QBad => QBad | QFuel => QFuel
                    end.
Proof. destruct r as [q' st]. cbn [fst]. intros -> H. destruct q; try discriminate; reflexivity. Qed.

Lemma view_step (d : bytes) m hb v' fs : view d m = hb ++ v' -> 8 <= len hb ->
  (length (view d m) < S fs)%nat -> (length v' < fs)%nat.
Proof. intros -> L8 LF. rewrite app_length in LF. unfold len in L8. lia. Qed.

(* ---- one position at a time: the reader for the header type of position k ---- *)

Definition hdr_nh (h : hdr) : N :=
  match h with HRaw h => r_next_header h | HFrag h => f_next_header h | HAuth h => a_next_header h end.

Definition hdr_read (k : ext_kind) (lim : bool) (st : rstate) : qres hdr * rstate :=
  match k with
  | KFragment => qbind (frag_read lim st) (fun h st => (QOk (HFrag h), st))
  | KAuth => qbind (auth_read lim st) (fun h st => (QOk (HAuth h), st))
  | _ => qbind (raw_read lim st) (fun h st => (QOk (HRaw h), st))
  end.

Lemma hdr_read_framed k d c p m hb nh v' : 1 <= c -> bytes_ok d -> m_ok d m ->
  frame k (view d m) = Framed hb nh v' ->
  exists h, hdr_of_bytes k hb = Some h /\ hdr_nh h = nh /\ len hb <= avail d m /\ 8 <= len hb /\
    hdr_read k (lim_of m) (mk_st d c p m)
    = (QOk h, mk_st (drop (len hb) d) c (p + len hb) (m_done m (layer_code k) (len hb))) /\
    v' = view (drop (len hb) d) (m_done m (layer_code k) (len hb)).
Proof.
  intros Hc OK Hok F. destruct k; cbn [frame] in F; cbn [hdr_read hdr_of_bytes layer_code].
  1,2,3,6: destruct (raw_read_framed d c p m hb nh v' Hc OK Hok F) as (h & -> & NH & LA & L8 & -> & EV);
           exists (HRaw h); auto 6.
  - destruct (frag_read_framed d c p m hb nh v' Hc Hok F) as (h & -> & NH & LA & L8 & -> & EV).
    exists (HFrag h). auto 6.
  - destruct (auth_read_framed d c p m hb nh v' Hc Hok F) as (h & -> & NH & LA & L8 & -> & EV).
    exists (HAuth h). auto 6.
Qed.

Lemma hdr_read_fault k d c p m x : 1 <= c -> m_ok d m ->
  frame k (view d m) = Fault x ->
  fst (hdr_read k (lim_of m) (mk_st d c p m))
  = match x with
    | FLen rq => fail_at m (layer_code k) (lim_required k (view d m) rq) (avail d m)
    | FAuthZeroLen => QContent CAuthZeroLen
    end.
Proof.
  intros Hc Hok F. destruct k; cbn [frame] in F; cbn [hdr_read layer_code lim_required].
  1,2,3,6: destruct (raw_read_fault d c p m x Hc Hok F) as (rq & -> & RR);
           rewrite (qbind_fail _ _ _ RR) by (destruct m; reflexivity); destruct m; reflexivity.
  - destruct (frag_read_fault d c p m x Hc Hok F) as (-> & RR).
    rewrite (qbind_fail _ _ _ RR) by (destruct m; reflexivity). destruct m; reflexivity.
  - pose proof (auth_read_fault d c p m x Hc Hok F) as RR.
    rewrite (qbind_fail _ _ _ RR) by (destruct x, m; reflexivity). destruct x, m; reflexivity.
Qed.

(* a walk that stops on a fault, in the readers' terms *)
Lemma read_from_fault m e0 n rest k x :
  read_from m e0 (mkWalk [] n rest (SFault k x))
  = match x with
    | FLen rq => fail_at m (layer_code k) (lim_required k rest rq) (len rest)
    | FAuthZeroLen => QContent CAuthZeroLen
    end.
Proof.
  unfold read_from, consumed, fail_at. cbn [w_stop w_rest w_chain map concat len length N.of_nat].
  destruct x, m; try reflexivity. now rewrite N.add_0_r.
Qed.

(* one iteration of the reader loop, by the slot rule *)
Lemma read6_loop_step f lim e n st seen : slots_agree seen e ->
  read6_loop (S f) lim e n st =
  match decide false seen n with
  | DTake k => qbind (hdr_read k lim st) (fun h st => read6_loop f lim (put e k h) (hdr_nh h) st)
  | DHopNotAtStart => (QContent CHopNotAtStart, st)
  | DNonExt | DRefilled => (QOk (e, n), st)
  end.
Proof.
  intros SA. sa_destruct SA. rewrite decide_arm, SAr, SAd, SAx, SAf, SAa. cbn [read6_loop]. unfold has_final.
  destruct (arm_of n); try reflexivity.
  - destruct (routing e) as [rt|] eqn:ER; cbn [is_some].
    + destruct (is_some (rt_final_destination_options rt)); [reflexivity|].
      cbn [hdr_read put]. rewrite ER. destruct (raw_read lim st) as [[] st']; reflexivity.
    + destruct (is_some (destination_options e)); [reflexivity|].
      cbn [hdr_read]. destruct (raw_read lim st) as [[] st']; reflexivity.
  - destruct (is_some (routing e)); [reflexivity|].
    cbn [hdr_read]. destruct (raw_read lim st) as [[] st']; reflexivity.
  - destruct (is_some (fragment e)); [reflexivity|].
    cbn [hdr_read]. destruct (frag_read lim st) as [[] st']; reflexivity.
  - destruct (is_some (auth e)); [reflexivity|].
    cbn [hdr_read]. destruct (auth_read lim st) as [[] st']; reflexivity.
Qed.

Lemma read6_loop_walk fm : forall fs d c p m result n seen,
  1 <= c -> bytes_ok d -> m_ok d m -> slots_agree seen result ->
  (free seen < fm)%nat -> (length (view d m) < fs)%nat ->
  rpost d c p (lim_of m) (walk_loop fs false seen n (view d m))
        (read_from m result (walk_loop fs false seen n (view d m)))
        (read6_loop fm (lim_of m) result n (mk_st d c p m)).
Proof.
  induction fm as [|fm IH]; intros fs d c p m result n seen Hc OK Hok SA FR LF; [lia|].
  destruct fs as [|fs]; [lia|].
  rewrite (read6_loop_step fm _ result n _ seen SA). cbn [walk_loop].
  destruct (decide false seen n) as [k| | |] eqn:D;
    [|apply rpost_stop; exact Hok|apply rpost_stop; exact Hok|apply rpost_err; reflexivity].
  destruct (frame k (view d m)) as [hb nh v'|x] eqn:F.
  - destruct (hdr_read_framed k d c p m hb nh v' Hc OK Hok F) as (h & HB & NH & LA & L8 & RR & EV).
    pose proof (frame_framed k _ hb nh v' F) as (E & _).
    rewrite RR. cbn [qbind]. rewrite (read_from_cons m (layer_code k)). apply rpost_cons.
    rewrite NH, EV, <- (lim_of_done m (layer_code k) (len hb)), (place_put _ _ _ _ HB).
    apply IH; try assumption.
    + apply bytes_ok_drop. exact OK.
    + apply m_ok_done; assumption.
    + exact (slots_agree_put _ _ _ _ _ _ SA D HB).
    + pose proof (free_take seen n k D). lia.
    + rewrite <- EV. eapply view_step; eauto.
  - pose proof (hdr_read_fault k d c p m x Hc Hok F) as RR.
    rewrite read_from_fault, (view_len d m Hok).
    apply rpost_err; [|destruct x, m; reflexivity].
    rewrite (qbind_fail _ _ _ RR) by (destruct x, m; reflexivity). destruct x, m; reflexivity.
Qed.

(* ------------------------------------------------------------------ *)
(* Ipv6Extensions::read / read_limited *)
Theorem read6_walk d c p m first : 1 <= c -> bytes_ok d -> m_ok d m ->
  rpost d c p (lim_of m) (ref_walk first (view d m)) (read_of_walk m (ref_walk first (view d m)))
        (read6 (lim_of m) first (mk_st d c p m)).
Proof.
  intros Hc OK Hok. unfold read6, ref_walk, read_of_walk, IPV6_HOP_BY_HOP.
  rewrite (N.eqb_sym 0 first). destruct (first =? 0) eqn:E0.
  - cbn [walk_loop]. unfold decide. cbn [ip_number_of]. rewrite E0. cbn [frame].
    destruct (frame_options (view d m)) as [hb nh v'|x] eqn:F.
    + destruct (raw_read_framed d c p m hb nh v' Hc OK Hok F) as (h & RB & NH & LA & L8 & RR & EV).
      pose proof (frame_framed KHopByHop _ hb nh v' F) as (E & _).
      rewrite RR. cbn [qbind]. rewrite (read_from_cons m L_IPV6EXT). apply rpost_cons.
      rewrite NH, EV, <- (lim_of_done m L_IPV6EXT (len hb)).
      replace (place exts6_default (KHopByHop, hb)) with (set_hop exts6_default h)
        by (unfold place; rewrite RB; reflexivity).
      apply read6_loop_walk; try assumption.
      * apply bytes_ok_drop. exact OK.
      * apply m_ok_done; assumption.
      * apply slots_agree_hop.
      * pose proof (free_le5 [KHopByHop]). unfold LOOP_FUEL. lia.
      * rewrite <- EV. eapply view_step; [exact E|exact L8|]. lia.
    + destruct (raw_read_fault d c p m x Hc Hok F) as (rq & -> & RR).
      apply rpost_err; [|destruct m; reflexivity].
      rewrite (qbind_fail _ _ _ RR) by (destruct m; reflexivity).
      unfold read_from, consumed, lim_required, layer_code, fail_at. cbn [w_stop w_rest w_chain map concat].
      rewrite (view_len d m Hok). destruct m as [|r]; [reflexivity|]. cbn [len]. rewrite N.add_0_r. reflexivity.
  - rewrite walk_loop_start_irrelevant by exact E0.
    apply read6_loop_walk; try assumption.
    + apply slots_agree_default.
    + pose proof (free_le5 []). unfold LOOP_FUEL. lia.
    + lia.
Qed.

(* the same against from_slice: whenever the slice decoder accepts the visible bytes, the reader
   returns the same struct and number and stands at the rest *)
Theorem read6_eq_from_slice d c p m first e n rest : 1 <= c -> bytes_ok d -> m_ok d m ->
  from_slice first (view d m) = Ok (e, n, rest) ->
  exists m' k, view d m = take k (view d m) ++ rest /\ k <= avail d m /\
    read6 (lim_of m) first (mk_st d c p m) = (QOk (e, n), mk_st (drop k d) c (p + k) m') /\
    view (drop k d) m' = rest /\ m_ok (drop k d) m' /\ lim_of m' = lim_of m.
Proof.
  intros Hc OK Hok H.
  assert (OKV : bytes_ok (view d m)) by (apply bytes_ok_take; exact OK).
  pose proof (from_slice_walk first (view d m) OKV) as SW. rewrite SW in H.
  pose proof (read6_walk d c p m first Hc OK Hok) as [R1 R2].
  assert (LF : (length (view d m) < S (length (view d m)))%nat) by lia.
  pose proof (walk_loop_sound (S (length (view d m))) true [] first (view d m) LF) as CH. cbv zeta in CH.
  fold (ref_walk first (view d m)) in CH. apply chain_ok_split in CH.
  set (w := ref_walk first (view d m)) in *.
  unfold strict_of_walk, strict_from in H. unfold read_of_walk, read_from in R1.
  assert (ST : w_stop w = SNonExt \/ w_stop w = SRefilled) by (destruct (w_stop w); try discriminate; auto).
  assert (HR : Ok (struct_from exts6_default (w_chain w), w_next w, w_rest w) = Ok (e, n, rest) :> res hdr_slice_error _)
    by (destruct ST as [X|X]; rewrite X in H; exact H).
  injection HR as <- <- <-.
  assert (RQ : fst (read6 (lim_of m) first (mk_st d c p m)) = QOk (struct_from exts6_default (w_chain w), w_next w))
    by (destruct ST as [X|X]; rewrite X in R1; exact R1).
  rewrite RQ in R2. destruct (R2 eq_refl) as (m' & SN & V & O & LM).
  fold (consumed w) in CH.
  assert (LC : len (consumed w) <= avail d m).
  { pose proof (f_equal len CH) as X. rewrite len_app, (view_len d m Hok) in X. lia. }
  exists m', (len (consumed w)). split.
  { transitivity (consumed w ++ w_rest w); [exact CH|]. f_equal. rewrite CH, take_app_exact. reflexivity. }
  split; [exact LC|]. split; [|auto].
  rewrite (surjective_pairing (read6 (lim_of m) first (mk_st d c p m))), RQ, SN. reflexivity.
Qed.

(* the reader never reaches an impossible index, a usize underflow or the end of its fuel *)
Theorem read6_regular d c p m first : 1 <= c -> bytes_ok d -> m_ok d m ->
  match fst (read6 (lim_of m) first (mk_st d c p m)) with
  | QOk _ | QIo KEof | QLen _ | QContent CHopNotAtStart | QContent CAuthZeroLen => True
  | _ => False
  end.
Proof.
  intros Hc OK Hok. destruct (read6_walk d c p m first Hc OK Hok) as [R _]. rewrite R.
  assert (OKV : bytes_ok (view d m)) by (apply bytes_ok_take; exact OK).
  destruct (from_slice_total first (view d m) OKV) as (_ & _ & NF & _).
  unfold read_of_walk, read_from. destruct (w_stop (ref_walk first (view d m))) as [| | |k [rq|]|]; auto.
  destruct m; exact I.
Qed.

(* ---- Ipv4Extensions::read / read_limited ---- *)
Theorem read4_walk d c p m first : 1 <= c -> bytes_ok d -> m_ok d m ->
  rpost d c p (lim_of m) (ref_walk4 first (view d m)) (read4_of_walk m (ref_walk4 first (view d m)))
        (read4 (lim_of m) first (mk_st d c p m)).
Proof.
  intros Hc OK Hok. unfold read4, ref_walk4, read4_of_walk, AUTH. cbn [ip_number_of].
  rewrite (N.eqb_sym 51 first). destruct (first =? 51) eqn:E.
  - destruct (frame_auth (view d m)) as [hb nh v'|x] eqn:F.
    + destruct (auth_read_framed d c p m hb nh v' Hc Hok F) as (h & RB & NH & LA & L8 & RR & EV).
      rewrite RR. cbn [qbind].
      assert (EQ : QOk (mkExts4 (Some h), a_next_header h) = QOk (struct4_of_chain [(KAuth, hb)], nh) :> qres (Exts4 * N)).
      { cbn [struct4_of_chain]. rewrite RB, NH. reflexivity. }
      unfold rpost, consumed. cbn [w_stop w_chain w_next w_rest map snd concat fst snd].
      rewrite app_nil_r. split.
      * rewrite EQ. destruct (nh =? 51); reflexivity.
      * intros _. eexists. split; [reflexivity|]. split; [symmetry; exact EV|]. split; [apply m_ok_done; assumption|apply lim_of_done].
    + pose proof (auth_read_fault d c p m x Hc Hok F) as RR. cbn [w_stop w_rest].
      destruct x as [rq|].
      * apply rpost_err; [|destruct m; reflexivity].
        rewrite (qbind_fail _ _ _ RR) by (destruct m; reflexivity).
        unfold fail_at. rewrite (view_len d m Hok). destruct m; reflexivity.
      * apply rpost_err; [|reflexivity]. rewrite (qbind_fail _ _ _ RR) by reflexivity. reflexivity.
  - apply rpost_stop. exact Hok.
Qed.

Theorem read4_eq_from_slice d c p m first e n rest : 1 <= c -> bytes_ok d -> m_ok d m ->
  from_slice4 first (view d m) = Ok (e, n, rest) ->
  exists m' k, view d m = take k (view d m) ++ rest /\ k <= avail d m /\
    read4 (lim_of m) first (mk_st d c p m) = (QOk (e, n), mk_st (drop k d) c (p + k) m') /\
    view (drop k d) m' = rest /\ m_ok (drop k d) m' /\ lim_of m' = lim_of m.
Proof.
  intros Hc OK Hok H.
  assert (OKV : bytes_ok (view d m)) by (apply bytes_ok_take; exact OK).
  destruct (from_slice4_total first (view d m) OKV) as (SW & _ & _ & CH & _). rewrite SW in H.
  pose proof (read4_walk d c p m first Hc OK Hok) as [R1 R2].
  set (w := ref_walk4 first (view d m)) in *.
  unfold strict4_of_walk in H. unfold read4_of_walk in R1.
  assert (HR : Ok (struct4_of_chain (w_chain w), w_next w, w_rest w) = Ok (e, n, rest) :> res auth_slice_error _)
    by (destruct (w_stop w); try discriminate; exact H).
  injection HR as <- <- <-.
  assert (RQ : fst (read4 (lim_of m) first (mk_st d c p m)) = QOk (struct4_of_chain (w_chain w), w_next w))
    by (destruct (w_stop w); try discriminate; exact R1).
  rewrite RQ in R2. destruct (R2 eq_refl) as (m' & SN & V & O & LM).
  assert (LC : len (consumed w) <= avail d m).
  { pose proof (f_equal len CH) as X. rewrite len_app, (view_len d m Hok) in X. lia. }
  exists m', (len (consumed w)). split.
  { transitivity (consumed w ++ w_rest w); [exact CH|]. f_equal. rewrite CH, take_app_exact. reflexivity. }
  split; [exact LC|]. split; [|auto].
  rewrite (surjective_pairing (read4 (lim_of m) first (mk_st d c p m))), RQ, SN. reflexivity.
Qed.

(* a std::io::Cursor over the whole input sees the whole input *)
Lemma view_plain d : view d MPlain = d.
Proof.
  unfold view, avail, take, len. rewrite Nat2N.id. apply firstn_all.
Qed.

(* Ipv6Extensions::read(&mut Cursor::new(bs), first) *)
Theorem read6_cursor first bs e n rest : bytes_ok bs ->
  from_slice first bs = Ok (e, n, rest) ->
  exists s', read6 false first (mk_rstate (cursor bs) None) = (QOk (e, n), mk_rstate s' None) /\
             src_data s' = rest /\ src_pulled s' + len rest = len bs.
Proof.
  intros OK H. rewrite <- (view_plain bs) in H.
  destruct (read6_eq_from_slice bs 65536 0 MPlain first e n rest ltac:(lia) OK I H) as (m' & k & E & K & R & V & _ & LM).
  change (mk_st bs 65536 0 MPlain) with (mk_rstate (cursor bs) None) in R. cbn [lim_of] in R.
  destruct m' as [|r']; [|discriminate].
  eexists. split; [exact R|]. cbn [src_data src_pulled]. rewrite view_plain in V. split; [exact V|].
  rewrite view_plain in E. pose proof (f_equal len E) as X. rewrite len_app, len_take in X.
  cbn [avail] in K. lia.
Qed.

Theorem read4_cursor first bs e n rest : bytes_ok bs ->
  from_slice4 first bs = Ok (e, n, rest) ->
  exists s', read4 false first (mk_rstate (cursor bs) None) = (QOk (e, n), mk_rstate s' None) /\
             src_data s' = rest /\ src_pulled s' + len rest = len bs.
Proof.
  intros OK H. rewrite <- (view_plain bs) in H.
  destruct (read4_eq_from_slice bs 65536 0 MPlain first e n rest ltac:(lia) OK I H) as (m' & k & E & K & R & V & _ & LM).
  change (mk_st bs 65536 0 MPlain) with (mk_rstate (cursor bs) None) in R. cbn [lim_of] in R.
  destruct m' as [|r']; [|discriminate].
  eexists. split; [exact R|]. cbn [src_data src_pulled]. rewrite view_plain in V. split; [exact V|].
  rewrite view_plain in E. pose proof (f_equal len E) as X. rewrite len_app, len_take in X.
  cbn [avail] in K. lia.
Qed.
