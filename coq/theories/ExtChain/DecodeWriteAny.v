(* ExtChain/DecodeWriteAny.v -- decoding the bytes `write` produced, for EVERY
   final number (Proofs.decode_write covers the non-extension numbers). *)
From EP Require Import Base.Bytes ExtChain.Spec ExtChain.Model ExtChain.View ExtChain.Proofs
  ExtChain.WalkSpec ExtChain.WalkView ExtChain.WalkProofs ExtChain.ChainSpec ExtChain.ChainView.
From Coq Require Import ZArith Lia Permutation.
Local Open Scope N_scope.

(* the three header readers on an empty rest *)
Lemma offset_nil slice x : offset_err true slice [] x = Ok (add_offset x (len slice)).
Proof.
  unfold offset_err, usize_sub. change (len (@nil N)) with 0.
  rewrite (proj2 (N.leb_le 0 (len slice))) by lia. now rewrite N.sub_0_r.
Qed.

Lemma read_raw_nil slice :
  read_raw true slice [] = Err (HLen (mkLenError 8 0 LIpv6ExtHeader (len slice))).
Proof.
  unfold read_raw, raw_slice_from_slice. change (len (@nil N) <? 8) with true. cbn iota.
  rewrite offset_nil. unfold add_offset. cbn. now rewrite N.add_0_l.
Qed.

Lemma read_frag_nil slice :
  read_frag slice [] = Err (HLen (mkLenError 8 0 LIpv6FragHeader (len slice))).
Proof.
  unfold read_frag, frag_slice_from_slice. change (len (@nil N) <? 8) with true. cbn iota.
  rewrite offset_nil. unfold add_offset. cbn. now rewrite N.add_0_l.
Qed.

Lemma read_auth_nil slice :
  read_auth slice [] = Err (HLen (mkLenError 12 0 LIpAuthHeader (len slice))).
Proof.
  unfold read_auth, auth_slice_from_slice. change (len (@nil N) <? AUTH_MIN_LEN) with true. cbn iota.
  rewrite offset_nil. unfold add_offset. cbn. now rewrite N.add_0_l.
Qed.

Lemma has_present e k : has k (present_kinds e) = is_some (get_nh e k).
Proof.
  destruct e as [[h|] [d|] [[rt [fd|]]|] [fr|] [a|]]; destruct k; reflexivity.
Qed.

Lemma present_nil e : present_kinds e = [] -> e = exts6_default.
Proof.
  destruct e as [[h|] [d|] [[rt [fd|]]|] [fr|] [a|]]; cbn; intros H; try discriminate; reflexivity.
Qed.

Definition decode_end_loop (e : Exts6) (n : N) (total : N) : res hdr_slice_error (Exts6 * N * bytes) :=
  match decide false (present_kinds e) n with
  | DNonExt | DRefilled => Ok (e, n, [])
  | DHopNotAtStart => Err HHopByHopNotAtStart
  | DTake k => Err (fault_error total 0 k (FLen (min_header_len k)))
  end.

(* the decoder loop with every header of e decoded and nothing left *)
Lemma from_slice_end f slice e n :
  from_slice_loop (S f) slice e [] n = decode_end_loop e n (len slice).
Proof.
  cbn [from_slice_loop]. unfold decode_end_loop.
  destruct (arm_of_cases n) as [[A Nx]|[[A Nx]|[[A Nx]|[[A Nx]|[[A Nx]|[A Nx]]]]]]; rewrite A.
  - subst n. reflexivity.
  - subst n. unfold decide. cbn [N.eqb ip_number_of Pos.eqb IPV6_DEST_OPTIONS].
    rewrite !has_present. cbn [get_nh].
    destruct (routing e) as [r|]; cbn [option_map is_some].
    + destruct (rt_final_destination_options r); cbn [option_map is_some]; [reflexivity|].
      now rewrite read_raw_nil.
    + destruct (destination_options e); cbn [option_map is_some]; [reflexivity|].
      now rewrite read_raw_nil.
  - subst n. unfold decide. cbn [N.eqb ip_number_of Pos.eqb IPV6_ROUTE].
    rewrite !has_present. cbn [get_nh].
    destruct (routing e); cbn [option_map is_some]; [reflexivity|]. now rewrite read_raw_nil.
  - subst n. unfold decide. cbn [N.eqb ip_number_of Pos.eqb IPV6_FRAG].
    rewrite !has_present. cbn [get_nh].
    destruct (fragment e); cbn [option_map is_some]; [reflexivity|]. now rewrite read_frag_nil.
  - subst n. unfold decide. cbn [N.eqb ip_number_of Pos.eqb AUTH].
    rewrite !has_present. cbn [get_nh].
    destruct (auth e); cbn [option_map is_some]; [reflexivity|]. now rewrite read_auth_nil.
  - rewrite (proj2 (decide_nonext false (present_kinds e) n) Nx). reflexivity.
Qed.

Lemma flags_init_clear e : flags_init e = mkFlags false false false false false false -> e = exts6_default.
Proof.
  destruct e as [[h|] [d|] [[rt [fd|]]|] [fr|] [a|]]; cbn; intros H; try discriminate; reflexivity.
Qed.

Lemma walk_default first n : next_header exts6_default first = Ok n -> n = first.
Proof.
  intros H. apply walk_ok_iff_chain in H. destruct H as (c & P & _ & L).
  apply Permutation_sym, Permutation_nil in P. subst c. symmetry. exact L.
Qed.

(* decode o write for EVERY final number *)
Theorem decode_write_any e first bs n : exts6_valid e = true ->
  write e first = (bs, Ok tt) -> next_header e first = Ok n ->
  from_slice first bs = decode_end e n (len bs).
Proof.
  intros V W H. pose proof H as H0. unfold write in W. unfold next_header in H. unfold from_slice.
  destruct (IPV6_HOP_BY_HOP =? first) eqn:E0.
  - destruct (hop_by_hop_options e) as [h|] eqn:Eh.
    + pose proof (exts6_valid_inv e V) as (Vh & _). rewrite Eh in Vh. cbn [opt_valid] in Vh.
      rewrite raw_to_bytes_valid in W by assumption.
      destruct (from_slice_mirror_any _ _ _ _ _ _ _ _ bs V (Inv_clr_hop _ _ _ (Inv_init e)) W H)
        as (suf & R & Hb & D & f' & F).
      rewrite Hb at 1 2. rewrite read_raw_written by assumption. cbn [bind].
      rewrite <- (done_init_hop e h Eh), D, F, from_slice_end.
      unfold decode_end, decode_end_loop.
      assert (PK : is_nil (present_kinds e) = false).
      { unfold present_kinds, in_rfc_order, rfc8200_order. cbn [flat_map get_nh]. rewrite Eh. reflexivity. }
      now rewrite PK.
    + (* first = 0 without a hop-by-hop header: the walk is Ok only for the empty set, nothing is
         written, and the decoder looks for a hop-by-hop header in the empty slice *)
      apply N.eqb_eq in E0. subst first.
      apply (walk_hop_absent e n Eh) in H. destruct H as [-> Hf].
      apply flags_init_clear in Hf. subst e.
      revert W. unfold LOOP_FUEL. cbn. intros W. inversion W. subst bs. reflexivity.
  - destruct (from_slice_mirror_any _ _ _ _ _ _ _ _ bs V (Inv_init e) W H) as (suf & R & Hb & D & f' & F).
    cbn [app] in Hb. subst suf. rewrite done_init in D. rewrite D, F, from_slice_end.
    unfold decode_end, decode_end_loop.
    destruct (present_kinds e) eqn:PK; cbn [is_nil]; [|reflexivity].
    apply present_nil in PK. subst e. apply walk_default in H0. subst n.
    rewrite decide_start_irrelevant; [reflexivity|]. rewrite N.eqb_sym. exact E0.
Qed.

Lemma decide_refilled_start s1 s2 seen n : decide s1 seen n = DRefilled -> decide s2 seen n = DRefilled.
Proof.
  unfold decide. destruct (n =? ip_number_of KHopByHop); [destruct s1; discriminate|]. auto.
Qed.

(* ... so the round trip holds exactly when the final number is no extension number or announces a
   header whose position is filled *)
Theorem decode_write_iff e first bs n : exts6_valid e = true ->
  write e first = (bs, Ok tt) -> next_header e first = Ok n ->
  (from_slice first bs = Ok (e, n, []) <->
   is_ext_number n = false \/ decide false (present_kinds e) n = DRefilled).
Proof.
  intros V W H. rewrite (decode_write_any e first bs n V W H). unfold decode_end. split.
  - destruct (decide _ _ n) eqn:D; try discriminate; intros _.
    + left. eapply decide_nonext. eassumption.
    + right. eapply decide_refilled_start. eassumption.
  - intros [X|X].
    + now rewrite (proj2 (decide_nonext _ _ n) X).
    + now rewrite (decide_refilled_start _ (is_nil (present_kinds e)) _ _ X).
Qed.
