(* ExtChain/Soundness.v -- the chain relation of ChainSpec.v by itself: chains from one first
   number over one header set are front parts of one another, so the maximal one is unique and
   every chain is a front part of it; a complete chain is a maximal one that leaves no header
   out.  Proofs.v shows that the walkers of the model follow the maximal chain. *)
From EP Require Import Base.Bytes ExtChain.Spec ExtChain.WalkSpec ExtChain.ChainSpec.
From Coq Require Import ZArith Lia Permutation.
Local Open Scope N_scope.

(* ------------------------------------------------------------------ *)
(* positions *)

Lemma kind_eqb_eq a b : kind_eqb a b = true <-> a = b.
Proof. destruct a, b; cbn; split; intros H; try reflexivity; discriminate. Qed.

Lemma kind_eqb_refl a : kind_eqb a a = true.
Proof. now apply kind_eqb_eq. Qed.

Lemma kind_eqb_neq a b : kind_eqb a b = false <-> a <> b.
Proof.
  split.
  - intros H E. apply kind_eqb_eq in E. congruence.
  - intros H. destruct (kind_eqb a b) eqn:E; [|reflexivity]. apply kind_eqb_eq in E. contradiction.
Qed.

Lemma has_In k l : has k l = true <-> In k l.
Proof.
  unfold has. rewrite existsb_exists. split.
  - intros (x & I & E). apply kind_eqb_eq in E. now subst.
  - intros I. exists k. split; [assumption|apply kind_eqb_refl].
Qed.

Lemma has_not_In k l : has k l = false <-> ~ In k l.
Proof.
  rewrite <- has_In. destruct (has k l); split; intros H; congruence.
Qed.

Lemma has_app k a b : has k (a ++ b) = has k a || has k b.
Proof. apply existsb_app. Qed.

Lemma has_snoc k l k' : has k (l ++ [k']) = has k l || kind_eqb k k'.
Proof. rewrite has_app. cbn. now rewrite orb_false_r. Qed.

(* ------------------------------------------------------------------ *)
(* the slot discipline *)

Lemma slot_order_nil : slot_order [].
Proof. intros f k b E. destruct f; discriminate. Qed.

Lemma slot_order_prefix a b : slot_order (a ++ b) -> slot_order a.
Proof.
  intros S f k bk E. apply (S f k (bk ++ b)). subst a. now rewrite <- app_assoc.
Qed.

Lemma slot_order_snoc ks k : slot_order (ks ++ [k]) <-> slot_order ks /\ may_follow ks k.
Proof.
  split.
  - intros S. split; [eapply slot_order_prefix; eassumption|].
    apply (S ks k []). reflexivity.
  - intros [S M] f k' b E.
    destruct b as [|x b'] using rev_ind.
    + apply app_inj_tail in E. destruct E as [-> ->]. exact M.
    + clear IHb'. rewrite app_comm_cons, app_assoc in E. apply app_inj_tail in E.
      destruct E as [E _]. eapply S; eassumption.
Qed.

Definition may_followb (front : list ext_kind) (k : ext_kind) : bool :=
  match k with
  | KHopByHop => match front with [] => true | _ => false end
  | KDestOpts => negb (has KRouting front)
  | KFinalDestOpts => has KRouting front
  | _ => true
  end.

Lemma may_followb_ok front k : may_followb front k = true <-> may_follow front k.
Proof.
  destruct k; cbn; try tauto.
  - destruct front; split; intros; congruence.
  - rewrite negb_true_iff. apply has_not_In.
  - apply has_In.
Qed.

Fixpoint slot_orderb (front ks : list ext_kind) : bool :=
  match ks with
  | [] => true
  | k :: tl => may_followb front k && slot_orderb (front ++ [k]) tl
  end.

Lemma slot_orderb_ok ks : forall front, slot_orderb front ks = true ->
  forall f k b, ks = f ++ k :: b -> may_follow (front ++ f) k.
Proof.
  induction ks as [|x tl IH]; intros front H f k b E; [destruct f; discriminate|].
  cbn in H. apply andb_true_iff in H. destruct H as [H1 H2].
  destruct f as [|y f'].
  - cbn in E. inversion E; subst. rewrite app_nil_r. now apply may_followb_ok.
  - cbn in E. inversion E; subst.
    specialize (IH _ H2 f' k b eq_refl). now rewrite <- app_assoc in IH.
Qed.

Lemma slot_orderb_sound ks : slot_orderb [] ks = true -> slot_order ks.
Proof. intros H f k b E. exact (slot_orderb_ok ks [] H f k b E). Qed.

Lemma slot_orderb_complete ks : forall front, (forall f k b, ks = f ++ k :: b -> may_follow (front ++ f) k) ->
  slot_orderb front ks = true.
Proof.
  induction ks as [|x tl IH]; intros front H; [reflexivity|].
  cbn. apply andb_true_iff. split.
  - apply may_followb_ok. specialize (H [] x tl eq_refl). now rewrite app_nil_r in H.
  - apply IH. intros f k b E. rewrite <- app_assoc. apply (H (x :: f) k b). cbn. now rewrite E.
Qed.

Lemma slot_orderb_iff ks : slot_orderb [] ks = true <-> slot_order ks.
Proof.
  split; [apply slot_orderb_sound|]. intros S. apply slot_orderb_complete. exact S.
Qed.

(* the headers of any set, taken in RFC 8200 order, obey the slot discipline *)
Lemma slot_order_rfc {A} (get : ext_kind -> option A) :
  (get KFinalDestOpts <> None -> get KRouting <> None) ->
  slot_order (map fst (in_rfc_order get)).
Proof.
  intros HF. apply slot_orderb_sound. unfold in_rfc_order, rfc8200_order. cbn [flat_map].
  destruct (get KHopByHop), (get KDestOpts), (get KRouting), (get KFragment), (get KAuth),
    (get KFinalDestOpts); try reflexivity; exfalso; apply HF; congruence.
Qed.

(* ------------------------------------------------------------------ *)
(* Spec.linked *)

Lemma linked_app first a b n :
  linked first (a ++ b) n <-> exists m, linked first a m /\ linked m b n.
Proof.
  revert first. induction a as [|[k nh] a IH]; intros first; cbn.
  - split; [intros H; exists first; auto|intros (m & -> & H); exact H].
  - rewrite IH. split.
    + intros (E & m & H1 & H2). exists m. auto.
    + intros (m & (E & H1) & H2). split; [assumption|]. exists m. auto.
Qed.

Lemma linked_fun c : forall first n n', linked first c n -> linked first c n' -> n = n'.
Proof.
  induction c as [|[k nh] c IH]; intros first n n'; cbn.
  - congruence.
  - intros [_ H1] [_ H2]. eapply IH; eassumption.
Qed.

(* ------------------------------------------------------------------ *)
(* chains: extension by one header, prefixes, determinism *)

Lemma referenced_nil get first : referenced get first [] first.
Proof.
  repeat split; [constructor|constructor|apply slot_order_nil].
Qed.

Lemma NoDup_snoc {A} (l : list A) a : NoDup (l ++ [a]) <-> NoDup l /\ ~ In a l.
Proof.
  split.
  - intros H. split.
    + apply NoDup_remove_1 in H. now rewrite app_nil_r in H.
    + apply NoDup_remove_2 in H. now rewrite app_nil_r in H.
  - intros [H1 H2]. eapply Permutation_NoDup; [apply Permutation_cons_append|].
    now constructor.
Qed.

Lemma referenced_snoc get first c k nh n :
  referenced get first (c ++ [(k, nh)]) n <->
  exists m, referenced get first c m /\ can_extend get c m k nh /\ n = nh.
Proof.
  unfold referenced, can_extend. rewrite Forall_app, map_app. cbn [map fst].
  rewrite NoDup_snoc, slot_order_snoc, linked_app. split.
  - intros ((F1 & F2) & (N1 & N2) & (S1 & S2) & m & L1 & L2).
    cbn in L2. destruct L2 as [-> ->]. inversion F2 as [|? ? F3 _]; subst. unfold is_header_of in F3; cbn in F3.
    exists (ip_number_of k). repeat split; assumption.
  - intros (m & (F1 & N1 & S1 & L1) & (E & G & N2 & S2) & ->).
    repeat split; try assumption.
    + constructor; [exact G|constructor].
    + exists m. split; [assumption|]. cbn. auto.
Qed.

Lemma NoDup_app_l {A} (a b : list A) : NoDup (a ++ b) -> NoDup a.
Proof.
  induction b as [|x b IH] using rev_ind; [now rewrite app_nil_r|].
  rewrite app_assoc. intros H. apply NoDup_snoc in H. apply IH, H.
Qed.

Lemma referenced_prefix_closed get first a b n :
  referenced get first (a ++ b) n -> exists m, referenced get first a m /\ linked m b n.
Proof.
  unfold referenced. rewrite Forall_app, map_app, linked_app.
  intros ((F1 & _) & N1 & S1 & m & L1 & L2). exists m.
  repeat split; try assumption.
  - eapply NoDup_app_l. eassumption.
  - eapply slot_order_prefix. eassumption.
Qed.

Lemma referenced_next_fun get first c n n' :
  referenced get first c n -> referenced get first c n' -> n = n'.
Proof. intros (_ & _ & _ & L1) (_ & _ & _ & L2). eapply linked_fun; eassumption. Qed.

(* a number announces at most one header that can follow *)
Lemma can_extend_det get c m k nh k' nh' :
  can_extend get c m k nh -> can_extend get c m k' nh' -> k = k' /\ nh = nh'.
Proof.
  intros (E1 & G1 & _ & M1) (E2 & G2 & _ & M2).
  assert (K : k = k').
  { rewrite <- E2 in E1. destruct k, k'; try reflexivity; try discriminate; cbn in M1, M2; contradiction. }
  subst k'. split; [reflexivity|congruence].
Qed.

(* two chains from the same first number over the same set: one is the front of the other *)
Lemma referenced_comparable get first c1 : forall c2 n1 n2,
  referenced get first c1 n1 -> referenced get first c2 n2 ->
  (exists d, c2 = c1 ++ d) \/ (exists d, c1 = c2 ++ d).
Proof.
  induction c1 as [|[k nh] c IH] using rev_ind; intros c2 n1 n2 R1 R2.
  - left. exists c2. reflexivity.
  - apply referenced_snoc in R1. destruct R1 as (m & Rc & X & ->).
    destruct (IH c2 m n2 Rc R2) as [[d E]|[d E]].
    + destruct d as [|[k' nh'] d'].
      * right. exists [(k, nh)]. rewrite app_nil_r in E. now subst.
      * left. exists d'. subst c2.
        assert (R3 : referenced get first ((c ++ [(k', nh')]) ++ d') n2) by (now rewrite <- app_assoc).
        apply referenced_prefix_closed in R3. destruct R3 as (m' & R3 & _).
        apply referenced_snoc in R3. destruct R3 as (m'' & Rc' & X' & _).
        assert (m'' = m) by (eapply referenced_next_fun; eassumption). subst m''.
        destruct (can_extend_det _ _ _ _ _ _ _ X X') as [-> ->].
        now rewrite <- app_assoc.
    + right. exists (d ++ [(k, nh)]). subst c. now rewrite app_assoc.
Qed.

(* the maximal chain from a first number is unique *)
Lemma maximal_front get first c1 n1 c2 n2 d :
  referenced get first c1 n1 -> maximal get c1 n1 -> referenced get first c2 n2 -> c2 = c1 ++ d -> d = [].
Proof.
  intros R1 M1 R2 E. destruct d as [|[k nh] d']; [reflexivity|]. exfalso.
  subst c2. assert (R3 : referenced get first ((c1 ++ [(k, nh)]) ++ d') n2) by (now rewrite <- app_assoc).
  apply referenced_prefix_closed in R3. destruct R3 as (m' & R3 & _).
  apply referenced_snoc in R3. destruct R3 as (m & Rc & X & _).
  assert (m = n1) by (eapply referenced_next_fun; eassumption). subst m.
  exact (M1 k nh X).
Qed.

Theorem maximal_unique get first c1 n1 c2 n2 :
  referenced get first c1 n1 -> maximal get c1 n1 ->
  referenced get first c2 n2 -> maximal get c2 n2 -> c1 = c2 /\ n1 = n2.
Proof.
  intros R1 M1 R2 M2.
  assert (E : c1 = c2).
  { destruct (referenced_comparable get first c1 c2 n1 n2 R1 R2) as [[d E]|[d E]].
    - pose proof (maximal_front _ _ _ _ _ _ _ R1 M1 R2 E). subst d. now rewrite app_nil_r in E.
    - pose proof (maximal_front _ _ _ _ _ _ _ R2 M2 R1 E). subst d. now rewrite app_nil_r in E. }
  subst c2. split; [reflexivity|]. eapply referenced_next_fun; eassumption.
Qed.

(* every chain from `first` is a front part of the maximal one *)
Lemma referenced_in_maximal get first c n cm nm :
  referenced get first c n -> referenced get first cm nm -> maximal get cm nm ->
  exists d, cm = c ++ d.
Proof.
  intros R Rm Mm. destruct (referenced_comparable get first c cm n nm R Rm) as [[d E]|[d E]].
  - exists d. exact E.
  - pose proof (maximal_front _ _ _ _ _ _ _ Rm Mm R E). subst d. exists []. rewrite app_nil_r in *. now symmetry.
Qed.

(* ------------------------------------------------------------------ *)
(* complete chains *)

Lemma in_rfc_order_In {A} (get : ext_kind -> option A) k a :
  In (k, a) (in_rfc_order get) <-> get k = Some a.
Proof.
  unfold in_rfc_order. rewrite in_flat_map. split.
  - intros (x & _ & I). destruct (get x) eqn:G; cbn in I; [|contradiction].
    destruct I as [I|[]]. inversion I; subst. exact G.
  - intros G. exists k. split; [destruct k; cbn; tauto|]. rewrite G. now left.
Qed.

Lemma in_rfc_order_NoDup {A} (get : ext_kind -> option A) : NoDup (map fst (in_rfc_order get)).
Proof.
  unfold in_rfc_order, rfc8200_order. cbn [flat_map].
  destruct (get KHopByHop), (get KDestOpts), (get KRouting), (get KFragment), (get KAuth),
    (get KFinalDestOpts); cbn; repeat constructor; cbn; intuition discriminate.
Qed.

Lemma NoDup_map_fst_inv {A B} (l : list (A * B)) : NoDup (map fst l) -> NoDup l.
Proof. apply NoDup_map_inv. Qed.

Lemma unreferenced_nil get chain :
  unreferenced get chain = [] <-> (forall k a, get k = Some a -> In k (map fst chain)).
Proof.
  unfold unreferenced. split.
  - intros E k a G. apply has_In.
    destruct (has k (map fst chain)) eqn:H; [reflexivity|]. exfalso.
    assert (I : In k (filter (fun k => match get k with Some _ => negb (has k (map fst chain)) | None => false end)
                             rfc8200_order)).
    { apply filter_In. split; [destruct k; cbn; tauto|]. now rewrite G, H. }
    rewrite E in I. exact I.
  - intros H. destruct (filter _ _) as [|k l] eqn:E; [reflexivity|]. exfalso.
    assert (I : In k (k :: l)) by now left. rewrite <- E in I. apply filter_In in I. destruct I as [_ I].
    destruct (get k) as [a|] eqn:G; [|discriminate]. apply negb_true_iff, has_not_In in I.
    apply I. eapply H. eassumption.
Qed.

Lemma complete_chain_iff get first chain n :
  complete_chain get first chain n <-> referenced get first chain n /\ unreferenced get chain = [].
Proof.
  unfold complete_chain, referenced. split.
  - intros (P & S & L). repeat split; try assumption.
    + apply Forall_forall. intros [k a] I. apply (Permutation_in _ P), in_rfc_order_In in I. exact I.
    + eapply Permutation_NoDup; [apply Permutation_map, Permutation_sym, P|]. apply in_rfc_order_NoDup.
    + apply unreferenced_nil. intros k a G. apply in_rfc_order_In in G.
      apply (Permutation_in _ (Permutation_sym P)) in G. apply in_map_iff. exists (k, a). auto.
  - intros ((F & N & S & L) & U). repeat split; try assumption.
    apply NoDup_Permutation.
    + now apply NoDup_map_fst_inv.
    + apply NoDup_map_fst_inv, in_rfc_order_NoDup.
    + intros [k a]. rewrite in_rfc_order_In. split.
      * intros I. rewrite Forall_forall in F. exact (F _ I).
      * intros G. rewrite unreferenced_nil in U. specialize (U k a G).
        apply in_map_iff in U. destruct U as ([k' a'] & E & I). cbn in E. subst k'.
        rewrite Forall_forall in F. pose proof (F _ I) as G'. unfold is_header_of in G'. cbn in G'.
        congruence.
Qed.

Lemma complete_maximal get first chain n :
  complete_chain get first chain n -> maximal get chain n.
Proof.
  intros C. apply complete_chain_iff in C. destruct C as [_ U]. rewrite unreferenced_nil in U.
  intros k nh (_ & G & NI & _). apply NI. eapply U. eassumption.
Qed.

(* ------------------------------------------------------------------ *)
(* the verdict *)

Lemma verdict_ok get chain next n : verdict get chain next = VOk n <-> unreferenced get chain = [] /\ next = n.
Proof.
  unfold verdict. destruct (unreferenced get chain) as [|k l].
  - split; [intros H; inversion H; auto|intros [_ ->]; reflexivity].
  - split; [destruct (_ && _); discriminate|intros [H _]; discriminate].
Qed.

Lemma unreferenced_In get chain k : In k (unreferenced get chain) <->
  (exists a, get k = Some a) /\ ~ In k (map fst chain).
Proof.
  unfold unreferenced. rewrite filter_In. split.
  - intros [_ H]. destruct (get k) as [a|]; [|discriminate]. apply negb_true_iff, has_not_In in H. eauto.
  - intros [[a G] NI]. split; [destruct k; cbn; tauto|]. rewrite G. now apply negb_true_iff, has_not_In.
Qed.
