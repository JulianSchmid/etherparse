(* Defrag/CutFramesProofs.v -- the frames of a cut reassemble.
   A. reading a buffer given as a concatenation (`B_at`, `W_be16`, `bits_be16`, `bytes_at_at`);
   B. the reference decoder walks MACs + 802.1Q tags (`wire_ether_tags`, `wire_ethernet_link`);
   C. IPv4: `frame_v4_wire` -- wire_frag_of (frame_v4 l h f) = (id_v4 l h c, f_fo f, f_mf f, window of
      the data, v4); `frame_v4_decodes`, `frame_v4_model` (slicer model + frag_key_of + pkt_of_key,
      through PacketStepProofs.packet_key);
   D. IPv6 + fragment header: `frame_v6_wire`, `frame_v6_decodes`;
   E. schedules: `wire_for_realize`, `cut_frames_reassemble` (discharges the `frag_of P` hypothesis
      of `packets_complete`), `cut_frames_any_order` (index sets: any order, duplicates);
   F. the pieces of a cut by index. *)
From Coq Require Import ZArith Lia ZifyN ZifyBool List.
From EP Require BitFields.Spec BitFields.BitLemmas BitFields.Model BitFields.Proofs.
From EP Require Import Base.Bytes Defrag.Spec Defrag.Model.
From EP Require Defrag.Proofs.
From EP Require Import Parse.Types Parse.View Parse.WireSpec Parse.Fields Parse.FieldsProofs.
From EP Require Import Defrag.PacketStep Defrag.PacketStepProofs Defrag.CutFrames.
Import ListNotations.
Local Open Scope N_scope.

Ltac dmlia := zify; Z.div_mod_to_equations; lia.

(* ---- reading a buffer given as a concatenation ---- *)
Lemma B_at bs pre x post p : bs = pre ++ x :: post -> p = len pre -> B bs p = x.
Proof.
  intros -> ->. unfold B, len. rewrite Nnat.Nat2N.id, app_nth2 by lia.
  rewrite Nat.sub_diag. reflexivity.
Qed.

Lemma W_at bs pre a b post p : bs = pre ++ a :: b :: post -> p = len pre -> W bs p = a * 256 + b.
Proof.
  intros E ->. unfold W. rewrite (B_at bs pre a (b :: post) _ E eq_refl).
  rewrite (B_at bs (pre ++ [a]) b post).
  - reflexivity.
  - rewrite E, <- app_assoc. reflexivity.
  - rewrite len_app. reflexivity.
Qed.

Lemma bytes_at_at bs mid : forall pre post p,
  bs = pre ++ mid ++ post -> p = len pre -> bytes_at bs p (length mid) = mid.
Proof.
  induction mid as [|x mid IH]; intros pre post p E Hp; [reflexivity|].
  cbn [length bytes_at]. f_equal.
  - exact (B_at bs pre x (mid ++ post) p E Hp).
  - apply (IH (pre ++ [x]) post).
    + rewrite E, <- app_assoc. reflexivity.
    + rewrite len_app, Hp. reflexivity.
Qed.

Lemma bytes_n_at bs mid pre post p :
  bs = pre ++ mid ++ post -> p = len pre -> bytes_n bs p (len mid) = mid.
Proof.
  intros E Hp. unfold bytes_n, len. rewrite Nnat.Nat2N.id. exact (bytes_at_at bs mid pre post p E Hp).
Qed.

(* behind a prefix every reader sees the rest of the buffer *)
Lemma B_shift pre x k : B (pre ++ x) (len pre + k) = B x k.
Proof. unfold B, len. rewrite app_nth2 by lia. f_equal. lia. Qed.
Lemma W_shift pre x k : W (pre ++ x) (len pre + k) = W x k.
Proof. unfold W. now rewrite <- N.add_assoc, !B_shift. Qed.
Lemma bytes_at_shift pre x n : forall k, bytes_at (pre ++ x) (len pre + k) n = bytes_at x k n.
Proof.
  induction n as [|n IH]; intros k; cbn [bytes_at]; [reflexivity|].
  now rewrite B_shift, <- N.add_assoc, IH.
Qed.
Lemma bits_shift pre x k n a w : bits (pre ++ x) (len pre + k) n a w = bits x k n a w.
Proof. unfold bits. now rewrite bytes_at_shift. Qed.

Lemma to_be16_val v : v < 65536 -> (v / 256) mod 256 * 256 + v mod 256 = v.
Proof. intros H. dmlia. Qed.

Lemma to_be16_ok v : bytes_ok (to_be16 v).
Proof. unfold to_be16. repeat constructor; unfold byte_ok; dmlia. Qed.

Lemma W_be16 bs pre v post p : v < 65536 -> bs = pre ++ to_be16 v ++ post -> p = len pre -> W bs p = v.
Proof.
  intros Hv E Hp. unfold to_be16 in E. cbn [app] in E. rewrite (W_at bs pre _ _ post p E Hp).
  exact (to_be16_val v Hv).
Qed.

(* bit fields of a big-endian 16 bit number *)
Lemma bits_of_be16 v : BitFields.Spec.bits_of (to_be16 v) = BitFields.Spec.nbits 16 v.
Proof.
  unfold to_be16. rewrite !BitFields.BitLemmas.bits_of_cons. unfold BitFields.Spec.bits_of. cbn [flat_map].
  rewrite app_nil_r. apply BitFields.BitLemmas.nbits16_bytes.
Qed.

(* bits [16-w, 16) *)
Lemma field16_low v (w : nat) : (w <= 16)%nat ->
  BitFields.Spec.field (BitFields.Spec.nbits 16 v) (16 - w) w = v mod 2 ^ N.of_nat w.
Proof.
  intros Hw. replace 16%nat with ((16 - w) + w)%nat at 1 by lia.
  rewrite BitFields.BitLemmas.nbits_split.
  pose proof (BitFields.BitLemmas.field_mid (BitFields.Spec.nbits (16 - w) (v / 2 ^ N.of_nat w))
                (BitFields.Spec.nbits w v) []) as F.
  rewrite !BitFields.BitLemmas.nbits_length, app_nil_r in F. rewrite F.
  apply BitFields.BitLemmas.bits_val_nbits.
Qed.

(* bits [a, a+w) with a + w + r = 16: (v / 2^r) mod 2^w *)
Lemma field16_mid v (a w r : nat) : (a + w + r = 16)%nat ->
  BitFields.Spec.field (BitFields.Spec.nbits 16 v) a w = (v / 2 ^ N.of_nat r) mod 2 ^ N.of_nat w.
Proof.
  intros E. replace 16%nat with ((a + w) + r)%nat by lia.
  rewrite BitFields.BitLemmas.nbits_split, BitFields.BitLemmas.nbits_split.
  rewrite <- app_assoc.
  pose proof (BitFields.BitLemmas.field_mid
                (BitFields.Spec.nbits a (v / 2 ^ N.of_nat r / 2 ^ N.of_nat w))
                (BitFields.Spec.nbits w (v / 2 ^ N.of_nat r)) (BitFields.Spec.nbits r v)) as F.
  rewrite !BitFields.BitLemmas.nbits_length in F. rewrite F.
  apply BitFields.BitLemmas.bits_val_nbits.
Qed.

Lemma bits_be16_at x k v a w r : bytes_at x k 2 = to_be16 v ->
  (a + w + r = 16)%nat -> bits x k 2 a w = (v / 2 ^ N.of_nat r) mod 2 ^ N.of_nat w.
Proof. intros E Hs. unfold bits. rewrite E, bits_of_be16. exact (field16_mid v a w r Hs). Qed.

Lemma bits_be16 bs pre v post p a w r : bs = pre ++ to_be16 v ++ post -> p = len pre ->
  (a + w + r = 16)%nat -> bits bs p 2 a w = (v / 2 ^ N.of_nat r) mod 2 ^ N.of_nat w.
Proof. intros E Hp. apply bits_be16_at. exact (bytes_at_at bs (to_be16 v) pre post p E Hp). Qed.

(* ---- the link part: walking the 802.1Q tags ---- *)
Definition first_et (tags : list (N * N)) (et : N) : N :=
  match tags with [] => et | t :: _ => fst t end.

Lemma tags_bytes_head tags et : exists tl, tags_bytes tags et = to_be16 (first_et tags et) ++ tl.
Proof.
  destruct tags as [|t r]; cbn [tags_bytes first_et].
  - exists []. rewrite app_nil_r. reflexivity.
  - eexists. reflexivity.
Qed.

Lemma len_tags_bytes tags et : len (tags_bytes tags et) = 2 + 4 * len tags.
Proof.
  induction tags as [|t r IH]; cbn [tags_bytes]; [reflexivity|].
  rewrite !len_app, IH, len_cons. change (len (to_be16 (fst t))) with 2. change (len (to_be16 (snd t))) with 2. lia.
Qed.

Lemma tags_bytes_ok tags et : bytes_ok (tags_bytes tags et).
Proof.
  induction tags as [|t r IH]; cbn [tags_bytes]; [apply to_be16_ok|].
  apply bytes_ok_app. split; [apply to_be16_ok|]. apply bytes_ok_app. split; [apply to_be16_ok|exact IH].
Qed.

Fixpoint tag_exts (pos lim : N) (n : nat) : list vlink_ext :=
  match n with O => [] | S m => VVlan (pos, lim - pos) :: tag_exts (pos + 4) lim m end.

Definition add_exts (p : vpacket) (xs : list vlink_ext) : vpacket :=
  mkVPacket (v_link p) (v_exts p ++ xs) (v_net p) (v_transport p).

Lemma tag_ok_vlan t : tag_ok t -> is_vlan (fst t) = true /\ fst t < 65536.
Proof. unfold tag_ok. intros (H & _). destruct H as [H|[H|H]]; rewrite H; split; reflexivity. Qed.

Lemma first_et_lt tags et : Forall tag_ok tags -> et < 65536 -> first_et tags et < 65536.
Proof.
  intros F He. destruct tags as [|t r]; [exact He|]. apply Forall_cons_iff in F; destruct F as (Ht & _).
  exact (proj2 (tag_ok_vlan t Ht)).
Qed.

Lemma wire_ether_tags et bs body : is_vlan et = false -> et <> 35045 -> et < 65536 ->
  forall tags cap p front, (length tags <= cap)%nat -> Forall tag_ok tags ->
  bs = front ++ tags_bytes tags et ++ body ->
  wire_ether bs cap p (first_et tags et) LsSlice (len front + 2) (len bs) =
  wire_net bs (add_exts p (tag_exts (len front + 2) (len bs) (length tags))) et LsSlice
    (len front + 2 + 4 * len tags) (len bs).
Proof.
  intros Hv Hm He. induction tags as [|t r IH]; intros cap p front Hc F E.
  - cbn [first_et length tag_exts]. unfold add_exts. rewrite app_nil_r.
    replace (len front + 2 + 4 * len (@nil (N * N))) with (len front + 2) by (unfold len; cbn [length]; lia).
    apply N.eqb_neq in Hm.
    destruct p; destruct cap; cbn [wire_ether]; rewrite Hv, Hm; reflexivity.
  - apply Forall_cons_iff in F; destruct F as (Ht & Fr). destruct (tag_ok_vlan t Ht) as (Hvt & Hlt).
    destruct cap as [|c]; [cbn [length] in Hc; lia|]. cbn [first_et wire_ether]. rewrite Hvt.
    cbn [tags_bytes] in E.
    assert (Hl : len bs = len front + 4 + len (tags_bytes r et) + len body).
    { rewrite E, !len_app. change (len (to_be16 (fst t))) with 2. change (len (to_be16 (snd t))) with 2. lia. }
    pose proof (len_tags_bytes r et) as Hlt2.
    replace (len bs - (len front + 2) <? 4) with false by (symmetry; apply N.ltb_ge; lia).
    destruct (tags_bytes_head r et) as (tl & Etl).
    assert (EW : W bs (len front + 2 + 2) = first_et r et).
    { apply (W_be16 bs (front ++ to_be16 (fst t) ++ to_be16 (snd t)) (first_et r et) (tl ++ body)).
      - apply first_et_lt; assumption.
      - rewrite E, Etl, <- !app_assoc. reflexivity.
      - rewrite !len_app. change (len (to_be16 (fst t))) with 2. change (len (to_be16 (snd t))) with 2. lia. }
    rewrite EW.
    assert (Ef : len (front ++ to_be16 (fst t) ++ to_be16 (snd t)) + 2 = len front + 2 + 4).
    { rewrite !len_app. change (len (to_be16 (fst t))) with 2. change (len (to_be16 (snd t))) with 2. lia. }
    rewrite <- Ef.
    rewrite (IH c (with_ext p (VVlan (len front + 2, len bs - (len front + 2))))
                (front ++ to_be16 (fst t) ++ to_be16 (snd t))).
    + rewrite Ef. cbn [length tag_exts]. f_equal.
      * unfold add_exts, with_ext. cbn [v_link v_exts v_net v_transport]. rewrite <- app_assoc. reflexivity.
      * rewrite len_cons. lia.
    + cbn [length] in Hc. lia.
    + exact Fr.
    + rewrite E, <- !app_assoc. reflexivity.
Qed.

Lemma wire_vids_tags et bs body : forall tags front, Forall tag_ok tags ->
  bs = front ++ tags_bytes tags et ++ body ->
  wire_vids bs (tag_exts (len front + 2) (len bs) (length tags)) = map (fun t => snd t mod 4096) tags.
Proof.
  induction tags as [|t r IH]; intros front F E; [reflexivity|].
  apply Forall_cons_iff in F; destruct F as (Ht & Fr). cbn [length tag_exts wire_vids flat_map wire_vid map app fst].
  cbn [tags_bytes] in E. f_equal.
  - rewrite (bits_be16 bs (front ++ to_be16 (fst t)) (snd t) (tags_bytes r et ++ body) _ 4 12 0).
    + change (2 ^ N.of_nat 0) with 1. rewrite N.div_1_r. reflexivity.
    + rewrite E, <- !app_assoc. reflexivity.
    + rewrite len_app. reflexivity.
    + reflexivity.
  - assert (Ef : len (front ++ to_be16 (fst t) ++ to_be16 (snd t)) + 2 = len front + 2 + 4).
    { rewrite !len_app. change (len (to_be16 (fst t))) with 2. change (len (to_be16 (snd t))) with 2. lia. }
    rewrite <- Ef. apply (IH _ Fr). rewrite E, <- !app_assoc. reflexivity.
Qed.

Lemma B_mid bs pre mid post p (k : nat) : bs = pre ++ mid ++ post -> p = len pre + N.of_nat k ->
  (k < length mid)%nat -> B bs p = nth k mid 0.
Proof.
  intros -> -> Hk. unfold B, len. rewrite <- Nnat.Nat2N.inj_add, Nnat.Nat2N.id.
  rewrite app_nth2_plus, app_nth1 by exact Hk. reflexivity.
Qed.

Lemma len4 (l : bytes) : len l = 4 -> exists a b c d, l = [a; b; c; d].
Proof.
  unfold len. intros H. destruct l as [|a [|b [|c [|d [|e l]]]]]; cbn [length] in H; try lia.
  exists a, b, c, d. reflexivity.
Qed.

(* ---- IPv4: the reference decoder on a 20 octet header of a fragment ---- *)
Lemma wire_ipv4_eval bs p pos lim proto tl :
  B bs pos = 69 -> W bs (pos + 2) = tl -> 20 <= tl -> pos + tl <= lim ->
  B bs (pos + 9) = proto -> proto <> 51 -> ipv4_fragmented bs pos = true ->
  wire_ipv4 bs p LsSlice pos lim =
    VOk (with_net p (VIpv4 (pos, 20) None
           (mkVIp proto true LsIpv4HeaderTotalLen (pos + 20, pos + tl - (pos + 20))))).
Proof.
  intros E0 E2 Htl Hlim E9 Hp Hf.
  unfold wire_ipv4. cbv zeta. rewrite E0. change (69 / 16) with 4. change (69 mod 16) with 5.
  change (4 =? 4) with true. change (5 <? 5) with false. change (5 * 4) with 20. cbn [negb].
  destruct (N.ltb_spec (lim - pos) 20) as [L|L]; [lia|].
  unfold wire_ipv4_body. cbv zeta. rewrite E2.
  destruct (N.ltb_spec tl 20) as [L1|L1]; [lia|]. destruct (N.ltb_spec (lim - pos) tl) as [L2|L2]; [lia|].
  unfold wire_ipv4_tail. cbv zeta. rewrite E9, Hf. apply N.eqb_neq in Hp. rewrite Hp.
  unfold wire_transport. reflexivity.
Qed.

Lemma len_v4_header h f : v4_ok h -> len (v4_header h f) = 20.
Proof.
  intros (_ & _ & _ & _ & _ & Hs & _ & Hd & _). unfold v4_header. rewrite !len_app, Hs, Hd. reflexivity.
Qed.

Lemma flags_fo_lt df mf fo : fo < 8192 -> v4_flags_fo df mf fo < 65536.
Proof. unfold v4_flags_fo. destruct df, mf; lia. Qed.

Lemma flags_fo_mf df mf fo : fo < 8192 -> ((v4_flags_fo df mf fo / 8192) mod 2 =? 1) = mf.
Proof. unfold v4_flags_fo. intros H. destruct df, mf; apply Bool.eq_true_iff_eq; rewrite N.eqb_eq; split; intros; try discriminate; try reflexivity; dmlia. Qed.

Lemma flags_fo_fo df mf fo : fo < 8192 -> v4_flags_fo df mf fo mod 8192 = fo.
Proof. unfold v4_flags_fo. intros H. destruct df, mf; dmlia. Qed.

Lemma flags_fo_byte df mf fo : fo < 8192 ->
  negb ((((v4_flags_fo df mf fo / 256) mod 256) / 32) mod 2 =? 0) = mf.
Proof.
  unfold v4_flags_fo. intros H.
  destruct df, mf; cbn [negb]; apply Bool.eq_true_iff_eq; rewrite Bool.negb_true_iff, N.eqb_neq;
    split; intros; try discriminate; try reflexivity; dmlia.
Qed.

Lemma bytes_at_at' bs mid pre post p n :
  bs = pre ++ mid ++ post -> p = len pre -> n = length mid -> bytes_at bs p n = mid.
Proof. intros E Hp ->. exact (bytes_at_at bs mid pre post p E Hp). Qed.

(* the octets of the frame behind an arbitrary prefix `pre` *)
Lemma v4_facts pre h f bs : v4_ok h -> fits_v4 f -> bs = pre ++ v4_header h f ++ f_data f ->
  let ffo := v4_flags_fo (v4_df h) (f_mf f) (f_fo f) in
  len bs = len pre + 20 + len (f_data f) /\
  B bs (len pre) = 69 /\
  W bs (len pre + 2) = 20 + len (f_data f) /\
  W bs (len pre + 4) = v4_ident h /\
  B bs (len pre + 6) = (ffo / 256) mod 256 /\
  W bs (len pre + 6) = ffo /\
  B bs (len pre + 9) = v4_proto h /\
  flag bs (len pre + 6) 2 2 = f_mf f /\
  bits bs (len pre + 6) 2 3 13 = f_fo f /\
  bytes_at bs (len pre + 12) 4 = v4_src h /\
  bytes_at bs (len pre + 16) 4 = v4_dst h /\
  bytes_n bs (len pre + 20) (len (f_data f)) = f_data f.
Proof.
  intros Hh (Hfo & Hfit & Hdok) -> ffo. pose proof (len_v4_header h f Hh) as Hlen.
  destruct Hh as (Htos & Httl & Hpr & Hpr' & Hck & Hs & Hsb & Hd & Hdb & Hid).
  pose proof (flags_fo_lt (v4_df h) (f_mf f) (f_fo f) Hfo) as Hffo. fold ffo in Hffo.
  (* the header as twenty explicit octets; every field is then read by computation *)
  destruct (len4 _ Hs) as (s0 & s1 & s2 & s3 & Es). destruct (len4 _ Hd) as (d0 & d1 & d2 & d3 & Ed).
  assert (Ex : v4_header h f =
    [69; v4_tos h] ++ to_be16 (20 + len (f_data f)) ++ to_be16 (v4_ident h) ++ to_be16 ffo ++
    [v4_ttl h; v4_proto h] ++ to_be16 (v4_cksum h) ++ [s0; s1; s2; s3; d0; d1; d2; d3])
    by (unfold v4_header; now rewrite Es, Ed).
  rewrite Es, Ed.
  rewrite !B_shift, !W_shift, !bytes_at_shift. unfold flag. rewrite !bits_shift, Ex.
  repeat match goal with |- _ /\ _ => split end; try reflexivity.
  - rewrite <- Ex, !len_app, Hlen. lia.
  - now rewrite <- (N.add_0_r (len pre)), B_shift.
  - exact (to_be16_val (20 + len (f_data f)) ltac:(lia)).
  - exact (to_be16_val _ Hid).
  - exact (to_be16_val _ Hffo).
  - rewrite (bits_be16_at _ 6 ffo 2 1 13); [|reflexivity|reflexivity].
    exact (flags_fo_mf (v4_df h) (f_mf f) (f_fo f) Hfo).
  - rewrite (bits_be16_at _ 6 ffo 3 13 0); [|reflexivity|reflexivity].
    change (2 ^ N.of_nat 0) with 1. rewrite N.div_1_r.
    exact (flags_fo_fo (v4_df h) (f_mf f) (f_fo f) Hfo).
  - rewrite <- Ex. apply (bytes_n_at _ (f_data f) (pre ++ v4_header h f) []).
    + now rewrite app_nil_r, <- app_assoc.
    + rewrite len_app, Hlen. lia.
Qed.

(* ---- Ethernet II + tags, any ether type that is neither a tag nor MACsec ---- *)
Lemma len_link_bytes l et : link_ok l -> len (link_bytes l et) = 14 + 4 * len (el_tags l).
Proof. intros (Hm & _). unfold link_bytes. rewrite len_app, Hm, len_tags_bytes. lia. Qed.

Lemma link_bytes_ok l et : link_ok l -> bytes_ok (link_bytes l et).
Proof. intros (_ & Hm & _). apply bytes_ok_app. split; [exact Hm|apply tags_bytes_ok]. Qed.

Lemma wire_ethernet_link l et body bs : link_ok l -> is_vlan et = false -> et <> 35045 -> et < 65536 ->
  bs = link_bytes l et ++ body ->
  wire_ethernet bs =
    wire_net bs (mkVPacket (Some (VEthernet2 (0, len bs))) (tag_exts 14 (len bs) (length (el_tags l))) None None)
      et LsSlice (len (link_bytes l et)) (len bs) /\
  wire_vids bs (tag_exts 14 (len bs) (length (el_tags l))) = link_vids l.
Proof.
  intros Hl Hv Hm He E. pose proof (len_link_bytes l et Hl) as Hlen.
  destruct Hl as (Hmac & Hmok & Hn & Ht).
  assert (E' : bs = el_macs l ++ tags_bytes (el_tags l) et ++ body).
  { rewrite E. unfold link_bytes. rewrite <- app_assoc. reflexivity. }
  unfold wire_ethernet, n_bs.
  replace 14 with (len (el_macs l) + 2) by lia. split.
  - 
    assert (Hb : len bs = 14 + 4 * len (el_tags l) + len body) by (rewrite E, len_app; lia).
    destruct (N.ltb_spec (len bs) (len (el_macs l) + 2)) as [L|L]; [lia|].
    destruct (tags_bytes_head (el_tags l) et) as (tl & Etl).
    assert (EW : W bs 12 = first_et (el_tags l) et).
    { apply (W_be16 bs (el_macs l) _ (tl ++ body)).
      - apply first_et_lt; assumption.
      - rewrite E', Etl, <- app_assoc. reflexivity.
      - symmetry. exact Hmac. }
    rewrite EW.
    rewrite (wire_ether_tags et bs body Hv Hm He (el_tags l) 3 _ (el_macs l) Hn Ht E').
    unfold add_exts. cbn [v_link v_exts v_net v_transport app]. f_equal. lia.
  - exact (wire_vids_tags et bs body (el_tags l) (el_macs l) Ht E').
Qed.

(* ---- the IPv4 frame of a fragment is, by the wire formats, exactly that fragment ---- *)
Theorem frame_v4_wire l h f c : link_ok l -> v4_ok h -> fits_v4 f -> is_fragmenting f = true ->
  wire_frag_of EEthernet (frame_v4 l h f) c =
    Some (mkWireFrag (id_v4 l h c) (f_fo f) (f_mf f)
            (len (link_bytes l 2048) + 20, len (f_data f)) true).
Proof.
  intros Hl Hh Hf Hfr. set (bs := frame_v4 l h f).
  assert (E : bs = link_bytes l 2048 ++ v4_header h f ++ f_data f) by reflexivity. clearbody bs.
  destruct (wire_ethernet_link l 2048 (v4_header h f ++ f_data f) bs Hl eq_refl) as (Ew & Ev);
    [discriminate|reflexivity|exact E|].
  pose proof (v4_facts (link_bytes l 2048) h f bs Hh Hf E) as Fx. cbv zeta in Fx.
  destruct Fx as (Hlen & B0 & W2 & W4 & B6 & W6 & B9 & Fmf & Ffo & Fs & Fd & Fdata).
  set (q := len (link_bytes l 2048)) in *.
  pose proof Hf as (Hfo & Hfit & Hdok). pose proof Hh as (_ & _ & _ & Hp51 & _).
  assert (Hfrag : ipv4_fragmented bs q = true).
  { unfold ipv4_fragmented. rewrite B6, W6, flags_fo_byte, flags_fo_fo by exact Hfo. exact Hfr. }
  unfold wire_frag_of, wire_with. rewrite Ew. unfold wire_net.
  change (2048 =? 2054) with false. change (2048 =? 2048) with true. cbv iota.
  (* `lia` is kept away from the large hypotheses about bs *)
  assert (Hlim : q + (20 + len (f_data f)) <= len bs) by (clear - Hlen; lia).
  rewrite (wire_ipv4_eval bs _ q (len bs) (v4_proto h) (20 + len (f_data f)) B0 W2
             (N.le_add_r 20 _) Hlim B9 Hp51 Hfrag).
  unfold wire_key. cbn [with_net v_net v_exts fst]. rewrite Fmf, Ffo.
  unfold fragmenting. unfold is_fragmenting in Hfr. rewrite Hfr. rewrite Ev, Fs, Fd, W4.
  cbn [vip_number vip_win]. unfold id_v4. f_equal. f_equal. f_equal. clear. lia.
Qed.

Lemma be_num_be32 v : v < 4294967296 -> be_num (to_be32 v) = v.
Proof.
  intros H. unfold to_be32. rewrite <- be32_num. exact (BitFields.Proofs.be32_bytes v H).
Qed.

Definition v6_ffo (h : v6_fields) (f : frag) : N := f_fo f * 8 + v6_res2 h * 2 + (if f_mf f then 1 else 0).

Lemma v6_ffo_lt h f : f_fo f < 8192 -> v6_res2 h < 4 -> v6_ffo h f < 65536.
Proof. unfold v6_ffo. destruct (f_mf f); lia. Qed.
Lemma v6_ffo_mf h f : v6_res2 h < 4 -> (v6_ffo h f mod 2 =? 1) = f_mf f.
Proof.
  unfold v6_ffo. intros H. destruct (f_mf f); apply Bool.eq_true_iff_eq; rewrite N.eqb_eq;
    split; intros; try discriminate; try reflexivity; dmlia.
Qed.
Lemma v6_ffo_fo h f : f_fo f < 8192 -> v6_res2 h < 4 -> v6_ffo h f / 8 = f_fo f.
Proof. unfold v6_ffo. intros H1 H2. destruct (f_mf f); dmlia. Qed.
Lemma v6_ffo_lo h f : v6_res2 h < 4 -> negb ((v6_ffo h f mod 256) mod 2 =? 0) = f_mf f.
Proof.
  unfold v6_ffo. intros H. destruct (f_mf f); cbn [negb]; apply Bool.eq_true_iff_eq;
    rewrite Bool.negb_true_iff, N.eqb_neq; split; intros; try discriminate; try reflexivity; dmlia.
Qed.

Lemma len_v6_header h f : v6_ok h -> len (v6_header h f) = 48.
Proof.
  intros (_ & _ & _ & _ & _ & _ & _ & _ & _ & Hs & _ & Hd & _). unfold v6_header.
  rewrite !len_app, Hs, Hd. reflexivity.
Qed.

Lemma v6_facts pre h f bs : v6_ok h -> fits_v6 f -> bs = pre ++ v6_header h f ++ f_data f ->
  len bs = len pre + 48 + len (f_data f) /\
  B bs (len pre) = 96 + v6_tc h / 16 /\
  W bs (len pre + 4) = 8 + len (f_data f) /\
  B bs (len pre + 6) = 44 /\
  bytes_at bs (len pre + 8) 16 = v6_src h /\
  bytes_at bs (len pre + 24) 16 = v6_dst h /\
  B bs (len pre + 40) = v6_next h /\
  B bs (len pre + 40 + 3) = v6_ffo h f mod 256 /\
  W bs (len pre + 40 + 2) = v6_ffo h f /\
  flag bs (len pre + 40 + 2) 2 15 = f_mf f /\
  bits bs (len pre + 40 + 2) 2 0 13 = f_fo f /\
  num_at bs (len pre + 40 + 4) 4 = v6_ident h /\
  bytes_n bs (len pre + 48) (len (f_data f)) = f_data f.
Proof.
  intros Hh (Hfo & Hfit & Hdok) ->. pose proof (len_v6_header h f Hh) as Hlen.
  destruct Hh as (Htc & Hfl & Hhop & Hnx & _ & _ & _ & _ & _ & Hs & Hsb & Hd & Hdb & Hid & Hr1 & Hr2).
  pose proof (v6_ffo_lt h f Hfo Hr2) as Hffo.
  (* the frame behind `pre`: 8 explicit octets, the two addresses (40 octets so far),
     then the rest, whose front is explicit again *)
  set (Q8 := [96 + v6_tc h / 16; v6_tc h mod 16 * 16 + v6_flow h / 65536; (v6_flow h / 256) mod 256;
              v6_flow h mod 256] ++ to_be16 (8 + len (f_data f)) ++ [44; v6_hop h]).
  set (Q40 := Q8 ++ v6_src h ++ v6_dst h).
  set (R := [v6_next h; v6_res1 h] ++ to_be16 (v6_ffo h f) ++ to_be32 (v6_ident h) ++ f_data f).
  assert (Ex : v6_header h f ++ f_data f = Q40 ++ R)
    by (unfold v6_header, Q40, Q8, R, v6_ffo; now rewrite <- !app_assoc).
  assert (H40 : len Q40 = 40) by (unfold Q40; now rewrite !len_app, Hs, Hd).
  rewrite <- !N.add_assoc, !B_shift, !W_shift, !bytes_at_shift. unfold flag, num_at.
  rewrite !bits_shift, !bytes_at_shift, Ex.
  (* offsets 40 + k lie behind Q40 *)
  rewrite <- H40, !B_shift, !W_shift, !bits_shift, !bytes_at_shift.
  repeat match goal with |- _ /\ _ => split end; try reflexivity.
  - rewrite <- Ex, !len_app, Hlen. lia.
  - now rewrite <- (N.add_0_r (len pre)), B_shift.
  - exact (to_be16_val (8 + len (f_data f)) ltac:(lia)).
  - apply (bytes_at_at' _ (v6_src h) Q8 (v6_dst h ++ R)); [|reflexivity|unfold len in Hs; lia].
    unfold Q40. now rewrite <- !app_assoc.
  - apply (bytes_at_at' _ (v6_dst h) (Q8 ++ v6_src h) R); [| |unfold len in Hd; lia].
    + unfold Q40. now rewrite <- !app_assoc.
    + now rewrite len_app, Hs.
  - now rewrite <- (N.add_0_r (len Q40)), B_shift.
  - exact (to_be16_val _ Hffo).
  - rewrite (bits_be16_at _ 2 (v6_ffo h f) 15 1 0); [|reflexivity|reflexivity].
    change (2 ^ N.of_nat 0) with 1. rewrite N.div_1_r. exact (v6_ffo_mf h f Hr2).
  - rewrite (bits_be16_at _ 2 (v6_ffo h f) 0 13 3); [|reflexivity|reflexivity].
    change (2 ^ N.of_nat 3) with 8. rewrite (v6_ffo_fo h f Hfo Hr2). apply N.mod_small. exact Hfo.
  - exact (be_num_be32 _ Hid).
  - rewrite <- Ex. apply (bytes_n_at _ (f_data f) (pre ++ v6_header h f) []).
    + now rewrite app_nil_r, <- app_assoc.
    + rewrite len_app, Hlen. lia.
Qed.

Lemma wire_ipv6_eval bs p pos lim next plen :
  B bs pos / 16 = 6 -> W bs (pos + 4) = plen -> 8 <= plen -> pos + 40 + plen = lim ->
  B bs (pos + 6) = 44 -> B bs (pos + 40) = next ->
  next <> 0 -> next <> 43 -> next <> 44 -> next <> 51 -> next <> 60 ->
  negb (B bs (pos + 40 + 3) mod 2 =? 0) || negb (W bs (pos + 40 + 2) / 8 =? 0) = true ->
  wire_ipv6 bs p LsSlice pos lim =
    VOk (with_net p (VIpv6 (pos, 40) (Some 44) true (pos + 40, pos + 40 + 8 - (pos + 40))
           (mkVIp next true LsIpv6HeaderPayloadLen (pos + 40 + 8, pos + 40 + plen - (pos + 40 + 8))))).
Proof.
  intros E0 E4 Hpl Hlim E6 E40 N0 N43 N44 N51 N60 Hfr.
  unfold wire_ipv6. cbv zeta. rewrite E0. change (6 =? 6) with true. cbn [negb].
  destruct (N.ltb_spec (lim - pos) 40) as [L|L]; [lia|].
  unfold wire_ipv6_body. cbv zeta. rewrite E4.
  destruct (N.eqb_spec plen 0) as [Z|Z]; [lia|]. cbn [andb].
  destruct (N.ltb_spec (lim - pos) (40 + plen)) as [L1|L1]; [lia|].
  unfold wire_ipv6_tail, wire_exts. rewrite E6. change (44 =? 0) with false. cbv iota.
  cbn [wire_chain]. change (44 =? 0) with false. change ((44 =? 60) || (44 =? 43)) with false.
  change (44 =? 44) with true. cbv iota. cbv zeta.
  destruct (N.ltb_spec (pos + 40 + plen - (pos + 40)) 8) as [L2|L2]; [lia|].
  rewrite Hfr, E40. cbn [orb].
  destruct (N.to_nat (pos + 40 + plen - (pos + 40))) as [|n] eqn:En; [lia|].
  cbn [wire_chain].
  apply N.eqb_neq in N0, N43, N44, N51, N60. rewrite N0, N43, N44, N51, N60. cbn [orb]. cbv iota.
  destruct (N.eqb_spec (pos + 40 + 8) (pos + 40)) as [Q|Q]; [lia|].
  unfold wire_transport. reflexivity.
Qed.

Theorem frame_v6_wire l h f c : link_ok l -> v6_ok h -> fits_v6 f -> is_fragmenting f = true ->
  wire_frag_of EEthernet (frame_v6 l h f) c =
    Some (mkWireFrag (id_v6 l h c) (f_fo f) (f_mf f)
            (len (link_bytes l 34525) + 48, len (f_data f)) false).
Proof.
  intros Hl Hh Hf Hfr. set (bs := frame_v6 l h f).
  assert (E : bs = link_bytes l 34525 ++ v6_header h f ++ f_data f) by reflexivity. clearbody bs.
  destruct (wire_ethernet_link l 34525 (v6_header h f ++ f_data f) bs Hl eq_refl) as (Ew & Ev);
    [discriminate|reflexivity|exact E|].
  pose proof (v6_facts (link_bytes l 34525) h f bs Hh Hf E) as Fx.
  destruct Fx as (Hlen & B0 & W4 & B6 & Fs & Fd & B40 & B43 & W42 & Fmf & Ffo & Fid & Fdata).
  set (q := len (link_bytes l 34525)) in *.
  pose proof Hf as (Hfo & Hfit & Hdok).
  pose proof Hh as (Htc & _ & _ & _ & N0 & N43 & N44 & N51 & N60 & _ & _ & _ & _ & _ & _ & Hr2).
  assert (Hfrag : negb (B bs (q + 40 + 3) mod 2 =? 0) || negb (W bs (q + 40 + 2) / 8 =? 0) = true).
  { rewrite B43, W42, (v6_ffo_lo h f Hr2), (v6_ffo_fo h f Hfo Hr2). exact Hfr. }
  unfold wire_frag_of, wire_with. rewrite Ew. unfold wire_net.
  change (34525 =? 2054) with false. change (34525 =? 2048) with false. change (34525 =? 34525) with true. cbv iota.
  (* `lia` is kept away from the large hypotheses about bs *)
  assert (H0 : B bs q / 16 = 6) by (clear - B0 Htc; lia).
  assert (Hlim : q + 40 + (8 + len (f_data f)) = len bs) by (clear - Hlen; lia).
  rewrite (wire_ipv6_eval bs _ q (len bs) (v6_next h) (8 + len (f_data f)) H0 W4
             (N.le_add_r 8 _) Hlim B6 B40 N0 N43 N44 N51 N60 Hfrag).
  unfold wire_key. cbn [with_net v_net v_exts fst snd frag_pos].
  destruct (N.leb_spec (q + 40 + (q + 40 + 8 - (q + 40))) (q + 40)) as [L|L]; [clear - L; lia|].
  rewrite B6. change ((44 =? 0) || (44 =? 43) || (44 =? 60)) with false. change (44 =? 44) with true. cbv iota.
  rewrite Fmf, Ffo. unfold fragmenting. unfold is_fragmenting in Hfr. rewrite Hfr. rewrite Ev, Fs, Fd, Fid.
  cbn [vip_number vip_win]. unfold id_v6. f_equal. f_equal. f_equal; clear; lia.
Qed.

(* ---- the frames are byte strings ---- *)
Ltac bok := repeat match goal with |- bytes_ok (_ ++ _) => apply bytes_ok_app; split end.
Ltac bok_list := unfold bytes_ok; repeat (apply Forall_cons || apply Forall_nil); unfold byte_ok.
Lemma frame_v4_ok l h f : link_ok l -> v4_ok h -> fits_v4 f -> bytes_ok (frame_v4 l h f).
Proof.
  intros Hl (Htos & Httl & Hpr & _ & _ & _ & Hsb & _ & Hdb & _) (_ & _ & Hd).
  unfold frame_v4, v4_header.
  bok; try apply to_be16_ok; try assumption; try (apply link_bytes_ok; exact Hl); bok_list; lia.
Qed.

Lemma to_be32_ok v : bytes_ok (to_be32 v).
Proof. unfold to_be32. repeat constructor; unfold byte_ok; apply N.mod_lt; discriminate. Qed.

Lemma frame_v6_ok l h f : link_ok l -> v6_ok h -> fits_v6 f -> bytes_ok (frame_v6 l h f).
Proof.
  intros Hl (Htc & Hfl & Hhop & Hnx & _ & _ & _ & _ & _ & _ & Hsb & _ & Hdb & _ & Hr1 & _) (_ & _ & Hd).
  unfold frame_v6, v6_header.
  bok; try apply to_be16_ok; try apply to_be32_ok; try assumption;
    try (apply link_bytes_ok; exact Hl); bok_list; try lia; dmlia.
Qed.

(* ---- the frame decodes to (id, fragment) ---- *)
Theorem frame_v4_decodes l h f c : link_ok l -> v4_ok h -> fits_v4 f -> is_fragmenting f = true ->
  exists w, wire_frag_of EEthernet (frame_v4 l h f) c = Some w /\
    wf_id w = id_v4 l h c /\ wf_v4 w = true /\ frag_of_wire (frame_v4 l h f) w = f.
Proof.
  intros Hl Hh Hf Hfr. eexists. split; [exact (frame_v4_wire l h f c Hl Hh Hf Hfr)|].
  split; [reflexivity|]. split; [reflexivity|]. unfold frag_of_wire. cbn [wf_fo wf_mf wf_win fst snd].
  pose proof (v4_facts (link_bytes l 2048) h f (frame_v4 l h f) Hh Hf eq_refl) as Fx. cbv zeta in Fx.
  destruct Fx as (_ & _ & _ & _ & _ & _ & _ & _ & _ & _ & _ & Fdata). rewrite Fdata. destruct f; reflexivity.
Qed.

Theorem frame_v6_decodes l h f c : link_ok l -> v6_ok h -> fits_v6 f -> is_fragmenting f = true ->
  exists w, wire_frag_of EEthernet (frame_v6 l h f) c = Some w /\
    wf_id w = id_v6 l h c /\ wf_v4 w = false /\ frag_of_wire (frame_v6 l h f) w = f.
Proof.
  intros Hl Hh Hf Hfr. eexists. split; [exact (frame_v6_wire l h f c Hl Hh Hf Hfr)|].
  split; [reflexivity|]. split; [reflexivity|]. unfold frag_of_wire. cbn [wf_fo wf_mf wf_win fst snd].
  pose proof (v6_facts (link_bytes l 34525) h f (frame_v6 l h f) Hh Hf eq_refl) as Fx.
  destruct Fx as (_ & _ & _ & _ & _ & _ & _ & _ & _ & _ & _ & _ & Fdata). rewrite Fdata. destruct f; reflexivity.
Qed.

(* ... and so does the crate's model: slicer, key extraction, pool packet *)
Theorem frame_v4_model l h f c : link_ok l -> v4_ok h -> fits_v4 f -> is_fragmenting f = true ->
  exists p k, slice_with EEthernet (frame_v4 l h f) = Ok p /\ frag_key_of p c = Ok (Some k) /\
    pkt_of_key k = mkPkt (encode_id (id_v4 l h c)) true (v4_proto h) f /\
    forall pl ts, process_sliced_packet pl p ts c =
                  Ok (process pl (mkPkt (encode_id (id_v4 l h c)) true (v4_proto h) f) ts).
Proof.
  intros Hl Hh Hf Hfr. destruct (frame_v4_decodes l h f c Hl Hh Hf Hfr) as (w & Ew & Eid & Ev4 & Efr).
  pose proof (packet_key EEthernet (frame_v4 l h f) c (frame_v4_ok l h f Hl Hh Hf)) as K.
  destruct (slice_with EEthernet (frame_v4 l h f)) as [p|err|b]; [|rewrite Ew in K; discriminate|contradiction].
  destruct K as (_ & ok & Ek & Eo & Hk). rewrite Ew in Eo. destruct ok as [k|]; [|discriminate].
  injection Eo as Eo.
  assert (Ep : pkt_of_key k = mkPkt (encode_id (id_v4 l h c)) true (v4_proto h) f).
  { rewrite (pkt_of_key_wire _ k (Hk k eq_refl)), Eo. unfold pkt_of_wire. now rewrite Eid, Efr. }
  exists p, k. split; [reflexivity|]. split; [exact Ek|]. split; [exact Ep|].
  intros pl ts. unfold process_sliced_packet. rewrite Ek. cbn [bind]. rewrite Ep. reflexivity.
Qed.

(* ---- schedules ---- *)
Lemma fid_neq a b : a <> b -> fid_eqb (encode_id a) (encode_id b) = false.
Proof.
  intros H. destruct (fid_eqb (encode_id a) (encode_id b)) eqn:E; [|reflexivity].
  apply fid_eqb_encode in E. contradiction.
Qed.
Lemma fid_refl a : fid_eqb (encode_id a) (encode_id a) = true.
Proof. apply fid_eqb_encode. reflexivity. Qed.

Lemma wire_for_realize i pieces : Forall (fun f => is_fragmenting f = true) pieces ->
  forall s, Forall (sched_ok i pieces) s ->
  wire_for i (realize pieces s) = map (fun jt => (piece pieces (fst jt), snd jt)) (sched_js s) /\
  Forall op_bytes_ok (realize pieces s) /\
  Forall (fun jt => (fst jt < length pieces)%nat) (sched_js s).
Proof.
  intros Hfr. induction s as [|it s IH]; intros F; [repeat split; constructor|].
  apply Forall_cons_iff in F. destruct F as (Hit & Fr). destruct (IH Fr) as (IH1 & IH2 & IH3).
  assert (Hp : forall j, (j < length pieces)%nat -> is_fragmenting (piece pieces j) = true).
  { intros j Hj. rewrite Forall_forall in Hfr. apply Hfr. apply nth_In. exact Hj. }
  destruct it as [l h c j ts|l h c j ts|o]; cbn [realize map realize1 sched_js wire_for sched_ok] in *.
  - destruct Hit as (Hl & Hh & Hid & Hj & Hfit).
    destruct (frame_v4_decodes l h _ c Hl Hh Hfit (Hp j Hj)) as (w & Ew & Eid & _ & Efr).
    rewrite Ew, Eid, Hid, fid_refl, Efr. repeat split.
    + cbn [fst snd]. f_equal. exact IH1.
    + constructor; [exact (frame_v4_ok l h _ Hl Hh Hfit)|exact IH2].
    + constructor; [exact Hj|exact IH3].
  - destruct Hit as (Hl & Hh & Hid & Hj & Hfit).
    destruct (frame_v6_decodes l h _ c Hl Hh Hfit (Hp j Hj)) as (w & Ew & Eid & _ & Efr).
    rewrite Ew, Eid, Hid, fid_refl, Efr. repeat split.
    + cbn [fst snd]. f_equal. exact IH1.
    + constructor; [exact (frame_v6_ok l h _ Hl Hh Hfit)|exact IH2].
    + constructor; [exact Hj|exact IH3].
  - destruct Hit as (Hok & Hfo). repeat split; [|constructor; assumption|exact IH3].
    destruct o as [e bs ts chan|payload]; cbn [wire_for]; [|exact IH1].
    destruct (wire_frag_of e bs chan) as [w|] eqn:Ew; [|exact IH1].
    rewrite (fid_neq _ _ (Hfo w eq_refl)). exact IH1.
Qed.

Lemma cut_fragmenting P : forall sizes fo, 0 < fo + sumN sizes ->
  Forall (fun f => is_fragmenting f = true) (cut_at P fo sizes).
Proof.
  induction sizes as [|n r IH]; intros fo H; cbn [cut_at sumN] in *.
  - constructor; [|constructor]. unfold is_fragmenting. cbn [f_mf f_fo orb].
    destruct (N.eqb_spec fo 0); [lia|reflexivity].
  - constructor; [reflexivity|]. apply IH. lia.
Qed.

Module DPx := Defrag.Proofs.

(* ---- the frames of a cut reassemble ---- *)
Theorem cut_frames_reassemble P sizes i s pl js0 jl tl :
  len P <= 65535 -> sumN sizes * 8 <= len P -> 0 < sumN sizes ->
  Forall (sched_ok i (cut_at P 0 sizes)) s ->
  DPx.view (encode_id i) pl = None ->
  sched_js s = js0 ++ [(jl, tl)] ->
  (forall k, (k <= length js0)%nat ->
     ~ Covered P (map (piece (cut_at P 0 sizes)) (firstn k (map fst js0)))) ->
  Covered P (map (piece (cut_at P 0 sizes)) (map fst js0 ++ [jl])) ->
  exists tr, pk_trace pl (realize (cut_at P 0 sizes) s) = Ok tr /\
    answers_for (encode_id i) tr =
      map (fun _ => PNone) js0 ++ [PDone (fi_ipn i) (id_is_v4 (fi_ip i)) (map Some P)].
Proof.
  intros HP Hsum Hpos Hs Hv Hjs Hnc Hc. set (pieces := cut_at P 0 sizes) in *.
  assert (Hfr : Forall (fun f => is_fragmenting f = true) pieces) by (apply cut_fragmenting; lia).
  destruct (wire_for_realize i pieces Hfr s Hs) as (Ew & Hok & Hrange).
  assert (Hfo : Forall (frag_of P) pieces) by (apply DPx.cut_frag_of; lia).
  assert (Hpf : forall j, (j < length pieces)%nat -> frag_of P (piece pieces j)).
  { intros j Hj. rewrite Forall_forall in Hfo. apply Hfo. apply nth_In. exact Hj. }
  rewrite Hjs in Ew, Hrange. rewrite map_app in Ew. cbn [map fst snd] in Ew.
  apply Forall_app in Hrange. destruct Hrange as (Hr0 & Hrl).
  apply Forall_cons_iff in Hrl. destruct Hrl as (Hrl & _). cbn [fst] in Hrl.
  set (ks := map (fun jt : nat * N => (piece pieces (fst jt), snd jt)) js0) in *.
  assert (Eks : map fst ks = map (piece pieces) (map fst js0)).
  { unfold ks. rewrite !map_map. reflexivity. }
  destruct (packets_complete P i (realize pieces s) pl ks (piece pieces jl) tl HP Hok Hv Ew) as (tr & Et & Ea).
  - intros g Hg. rewrite Eks in Hg. apply in_map_iff in Hg. destruct Hg as (j & <- & Hj).
    apply Hpf. apply in_map_iff in Hj. destruct Hj as (jt & <- & Hjt).
    rewrite Forall_forall in Hr0. exact (Hr0 jt Hjt).
  - exact (Hpf jl Hrl).
  - intros k Hk. rewrite Eks, firstn_map. apply Hnc. unfold ks in Hk. rewrite map_length in Hk. exact Hk.
  - rewrite Eks. rewrite map_app in Hc. exact Hc.
  - exists tr. split; [exact Et|]. rewrite Ea. unfold ks. rewrite map_map. reflexivity.
Qed.

(* ---- a decidable sufficient condition for `foreign` (used by the examples) ---- *)
Definition foreignb (i : frag_id) (o : pk_op) : bool :=
  match o with
  | KPacket e bs ts chan =>
      bytes_okb bs &&
      match wire_frag_of e bs chan with
      | Some w => negb (fid_eqb (encode_id (wf_id w)) (encode_id i))
      | None => true
      end
  | KReturn _ => true
  end.

Lemma foreignb_spec i o : foreignb i o = true -> foreign i o.
Proof.
  destruct o as [e bs ts chan|payload]; cbn [foreignb foreign op_bytes_ok]; [|split; exact I].
  intros H. apply andb_prop in H. destruct H as (H1 & H2). split; [apply bytes_okb_spec; exact H1|].
  intros w Ew Eq. rewrite Ew, Eq, fid_refl in H2. discriminate.
Qed.

(* ---- F. the pieces of a cut by index ---- *)
Lemma sumN_firstn_S l : forall j, sumN (firstn (S j) l) = sumN (firstn j l) + nth j l 0.
Proof.
  induction l as [|x l IH]; intros j.
  - rewrite !firstn_nil. destruct j; reflexivity.
  - destruct j as [|j].
    + cbn [firstn sumN nth]. lia.
    + change (firstn (S (S j)) (x :: l)) with (x :: firstn (S j) l).
      change (firstn (S j) (x :: l)) with (x :: firstn j l). cbn [sumN nth]. rewrite IH. lia.
Qed.

Lemma sumN_firstn_mono l j j' : (j <= j')%nat -> sumN (firstn j l) <= sumN (firstn j' l).
Proof. intros H. induction H; [lia|]. rewrite sumN_firstn_S. lia. Qed.

Lemma sumN_firstn_le l j : sumN (firstn j l) <= sumN l.
Proof.
  destruct (Nat.le_ge_cases j (length l)) as [H|H].
  - rewrite <- (firstn_all l) at 2. apply sumN_firstn_mono. exact H.
  - rewrite firstn_all2 by exact H. lia.
Qed.

Lemma length_cut P : forall sizes fo, length (cut_at P fo sizes) = S (length sizes).
Proof. induction sizes as [|n r IH]; intros fo; cbn [cut_at length]; [reflexivity|]. rewrite IH. reflexivity. Qed.

Lemma nth_cut P : forall sizes fo j, (j <= length sizes)%nat -> (fo + sumN sizes) * 8 <= len P ->
  f_fo (nth j (cut_at P fo sizes) no_frag) = fo + sumN (firstn j sizes) /\
  ((j < length sizes)%nat -> f_mf (nth j (cut_at P fo sizes) no_frag) = true /\
                            len (f_data (nth j (cut_at P fo sizes) no_frag)) = nth j sizes 0 * 8) /\
  ((j = length sizes)%nat -> f_mf (nth j (cut_at P fo sizes) no_frag) = false).
Proof.
  induction sizes as [|n r IH]; intros fo j Hj Hb; cbn [cut_at].
  - cbn [length] in Hj. assert (j = 0%nat) by lia. subst j. cbn [nth firstn sumN f_fo f_mf length].
    split; [lia|]. split; [intros H; lia|reflexivity].
  - destruct j as [|j]; cbn [nth].
    + cbn [firstn sumN f_fo f_mf f_data length]. split; [lia|]. split.
      * intros _. split; [reflexivity|]. rewrite len_take, len_drop. cbn [sumN] in Hb. lia.
      * intros H. discriminate.
    + cbn [length] in Hj. cbn [sumN] in Hb. destruct (IH (fo + n) j) as (I1 & I2 & I3); [lia|lia|].
      cbn [firstn sumN length]. split; [rewrite I1; lia|]. split.
      * intros H. apply I2. lia.
      * intros H. apply I3. lia.
Qed.

Lemma in_firstn {A} (x : A) k l : In x (firstn k l) -> In x l.
Proof. intros H. rewrite <- (firstn_skipn k l). apply in_or_app. left. exact H. Qed.

(* index form: the deliveries of datagram i are ANY list over the piece indices 0 .. length sizes
   (any order, any repetitions) in which the last delivered index jl is the only one that was
   missing *)
Theorem cut_frames_any_order P sizes i s pl js0 jl tl :
  len P <= 65535 -> sumN sizes * 8 <= len P -> sizes <> [] -> Forall (fun n => 0 < n) sizes ->
  Forall (sched_ok i (cut_at P 0 sizes)) s ->
  DPx.view (encode_id i) pl = None ->
  sched_js s = js0 ++ [(jl, tl)] ->
  ~ In jl (map fst js0) ->
  (forall j, (j <= length sizes)%nat -> In j (map fst js0 ++ [jl])) ->
  exists tr, pk_trace pl (realize (cut_at P 0 sizes) s) = Ok tr /\
    answers_for (encode_id i) tr =
      map (fun _ => PNone) js0 ++ [PDone (fi_ipn i) (id_is_v4 (fi_ip i)) (map Some P)].
Proof.
  intros HP Hsum Hne Hpos Hs Hv Hjs Hnew Hall.
  assert (Hsp : 0 < sumN sizes).
  { destruct sizes as [|n r]; [contradiction|]. apply Forall_cons_iff in Hpos. cbn [sumN]. lia. }
  set (pieces := cut_at P 0 sizes) in *.
  assert (Hfr : Forall (fun f => is_fragmenting f = true) pieces) by (apply cut_fragmenting; lia).
  destruct (wire_for_realize i pieces Hfr s Hs) as (_ & _ & Hrange).
  rewrite Hjs in Hrange. apply Forall_app in Hrange. destruct Hrange as (Hr0 & Hrl).
  apply Forall_cons_iff in Hrl. destruct Hrl as (Hrl & _). cbn [fst] in Hrl.
  unfold pieces in Hr0, Hrl. rewrite length_cut in Hrl.
  assert (Hr0' : forall j, In j (map fst js0) -> (j <= length sizes)%nat).
  { intros j Hj. apply in_map_iff in Hj. destruct Hj as (jt & <- & Hjt). rewrite Forall_forall in Hr0.
    specialize (Hr0 jt Hjt). cbn beta in Hr0. rewrite length_cut in Hr0. lia. }
  assert (Hb : (0 + sumN sizes) * 8 <= len P) by lia.
  apply (cut_frames_reassemble P sizes i s pl js0 jl tl HP Hsum Hsp Hs Hv Hjs).
  - (* no prefix covers P: piece jl is missing *)
    intros k Hk ((g & Hg & Hgm) & Hc).
    assert (Hsub : forall j, In j (firstn k (map fst js0)) -> (j <= length sizes)%nat /\ j <> jl).
    { intros j Hj. apply in_firstn in Hj. split; [exact (Hr0' j Hj)|]. intros ->. contradiction. }
    destruct (Nat.eq_dec jl (length sizes)) as [El|El].
    + apply in_map_iff in Hg. destruct Hg as (j & <- & Hj). destruct (Hsub j Hj) as (Hj1 & Hj2).
      destruct (nth_cut P sizes 0 j Hj1 Hb) as (_ & Hm & _). unfold piece in Hgm.
      destruct Hm as (Hm & _); [lia|]. rewrite Hm in Hgm. discriminate.
    + assert (Hjl : (jl < length sizes)%nat) by lia.
      destruct (nth_cut P sizes 0 jl ltac:(lia) Hb) as (Ofo & Om & _). destruct (Om Hjl) as (_ & Olen).
      assert (Hnz : 0 < nth jl sizes 0).
      { rewrite Forall_forall in Hpos. apply Hpos. apply nth_In. exact Hjl. }
      pose proof (sumN_firstn_S sizes jl) as HS. pose proof (sumN_firstn_le sizes (S jl)) as HL.
      destruct (Hc (f_off (piece (cut_at P 0 sizes) jl))) as (f & Hf & Hlo & Hhi).
      { unfold f_off, piece. rewrite Ofo. lia. }
      apply in_map_iff in Hf. destruct Hf as (j & <- & Hj). destruct (Hsub j Hj) as (Hj1 & Hj2).
      destruct (nth_cut P sizes 0 j Hj1 Hb) as (Jfo & Jm & _).
      unfold f_endp, f_off, piece in Hlo, Hhi. rewrite Ofo, Jfo in *.
      destruct (Nat.lt_ge_cases j jl) as [Lt|Ge].
      * destruct Jm as (_ & Jlen); [lia|]. rewrite Jlen in Hhi.
        pose proof (sumN_firstn_S sizes j) as HSj.
        pose proof (sumN_firstn_mono sizes (S j) jl ltac:(lia)). lia.
      * pose proof (sumN_firstn_mono sizes (S jl) j ltac:(lia)). lia.
  - (* all indices delivered: the cut covers P *)
    destruct (DPx.cut_covers P sizes 0 Hb) as ((g & Hg & Hgm) & Hc).
    assert (Hin : forall f, In f (cut_at P 0 sizes) ->
                   In f (map (piece (cut_at P 0 sizes)) (map fst js0 ++ [jl]))).
    { intros f Hf. destruct (In_nth _ _ no_frag Hf) as (j & Hj & Ej). rewrite length_cut in Hj.
      rewrite <- Ej. apply (in_map (piece (cut_at P 0 sizes))). apply Hall. lia. }
    split.
    + exists g. split; [exact (Hin g Hg)|exact Hgm].
    + intros x Hx. destruct (Hc x) as (f & Hf & Hr); [lia|]. exists f. split; [exact (Hin f Hf)|exact Hr].
Qed.
