(* Defrag/PacketStepProofs.v -- lemmas about Defrag/PacketStep.v:
   A. `encode_id` is injective (the structured IpFragId embeds into the abstract ids of the pool
      model), `same_stream_iff`;
   B. on a strict slicing result the accessors `frag_key_of` reads return the RFC field at the
      layer's absolute position -- obtained from the C03 field lemmas of Parse/FieldsProofs.v
      (`ext_fields_ok`, `net_fields_ok`: accessor list = `spec_fields`) by inversion; the two
      address arrays of IPv4 (which C03 states as numbers) through `repr_rd_arr`;
      the iterator loop that looks for the fragment header = `frag_pos` over the RFC 8200 chain;
      `key_wire`: frag_key_of = wire_key, never Bug;
   C. a strict result has at most 3 link extensions (the ArrayVec capacity `vlan_ids` relies on);
   D. `packet_key`: every entry point, accepted / rejected / never Bug;
   E. pass-through; F. frame histories: lowering to the pool model's histories, isolation,
      completion; G. the wire fields that make the id. *)
From Coq Require Import ZArith Lia ZifyN ZifyBool List.
From EP Require BitFields.Spec.
From EP Require Import Base.Bytes Defrag.Spec Defrag.Model.
From EP Require Defrag.Proofs.
From EP Require Import Parse.Types Parse.Slices Parse.Cursor Parse.View Parse.WireSpec
  Parse.Repr Parse.StrictProofs Parse.Access Parse.AccessProofs Parse.Fields Parse.FieldsProofs.
From EP Require Import Defrag.PacketStep.
Import ListNotations.
Local Open Scope N_scope.

(* ---- A. the encoding of the structured id is injective ---- *)
Lemma app_eq_len {A} (a b c d : list A) :
  a ++ c = b ++ d -> length a = length b -> a = b /\ c = d.
Proof.
  revert b. induction a as [|x a IH]; intros [|y b] H L; cbn in *; try discriminate; auto.
  injection H as -> H. destruct (IH b H) as [-> ->]; [lia|]. auto.
Qed.

Lemma len_inj {A} (a b : list A) : len a = len b -> length a = length b.
Proof. unfold len. lia. Qed.

Lemma encode_ip_split a b r s :
  encode_ip a ++ r = encode_ip b ++ s -> a = b /\ r = s.
Proof.
  unfold encode_ip. cbn [app]. rewrite <- !app_assoc. cbn [app]. rewrite <- !app_assoc. cbn [app].
  intros H. injection H as Hv Ls H.
  apply app_eq_len in H; [|now apply len_inj]. destruct H as [Es H].
  injection H as Ld H.
  apply app_eq_len in H; [|now apply len_inj]. destruct H as [Ed H].
  injection H as Ei Hr.
  split; [|exact Hr].
  destruct a as [s1 d1 i1|s1 d1 i1], b as [s2 d2 i2|s2 d2 i2]; cbn in *; try discriminate; congruence.
Qed.

Lemma encode_id_inj a b : encode_id a = encode_id b -> a = b.
Proof.
  unfold encode_id. intros H. injection H as L H.
  apply app_eq_len in H; [|now apply len_inj]. destruct H as [Ev H].
  apply encode_ip_split in H. destruct H as [Ei H]. injection H as En Ec.
  destruct a, b; cbn in *; congruence.
Qed.

Theorem same_stream_iff a b :
  encode_id a = encode_id b <->
  fi_vlans a = fi_vlans b /\
  id_is_v4 (fi_ip a) = id_is_v4 (fi_ip b) /\
  id_src (fi_ip a) = id_src (fi_ip b) /\
  id_dst (fi_ip a) = id_dst (fi_ip b) /\
  id_ident (fi_ip a) = id_ident (fi_ip b) /\
  fi_ipn a = fi_ipn b /\
  fi_chan a = fi_chan b.
Proof.
  split.
  - intros H. apply encode_id_inj in H. subst b. repeat split.
  - intros (H1 & H2 & H3 & H4 & H5 & H6 & H7). f_equal.
    destruct a as [va ia na ca], b as [vb ib nb cb]. cbn in *. subst.
    destruct ia, ib; cbn in *; try discriminate; subst; reflexivity.
Qed.

Lemma fid_eqb_encode a b : fid_eqb (encode_id a) (encode_id b) = true <-> a = b.
Proof.
  rewrite Defrag.Proofs.fid_eqb_eq. split; [apply encode_id_inj|now intros ->].
Qed.

(* ---- B. accessors on a strict result = RFC field at the absolute position (via the C03 lemmas) ---- *)

Section Acc.
  Variable bs : bytes.
  Hypothesis Hok : bytes_ok bs.

  (* ---- VLAN ---- *)
  Lemma vlan_vid_wire s :
    ext_prov bs (LeVlan s) -> SingleVlanA.vlan_identifier s = Ok (bits bs (s_off s) 2 4 12).
  Proof.
    intros P. pose proof (ext_fields_ok bs Hok _ P) as H.
    cbn [ext_fields view_ext spec_ext] in H. binv H f Ef. injection H as H.
    unfold vlan_fields in Ef. binv Ef a Ea. binv Ef b Eb. binv Ef c Ec. binv Ef d Ed.
    injection Ef as <-. unfold vlan_spec, win_of in H. cbn [fst] in H. injection H as _ _ H _.
    rewrite Ec, H. reflexivity.
  Qed.

  Lemma vlan_ids_loop_wire xs : forall acc,
    Forall (ext_prov bs) xs -> len acc + len xs <= 3 ->
    vlan_ids_loop xs acc = Ok (acc ++ wire_vids bs (map view_ext xs)).
  Proof.
    induction xs as [|x xs IH]; intros acc F L; cbn [vlan_ids_loop map wire_vids flat_map].
    - now rewrite app_nil_r.
    - inversion F as [|? ? Px Pr]; subst. rewrite len_cons in L.
      destruct x as [s|m]; cbn [view_ext wire_vid app].
      + rewrite (vlan_vid_wire s Px). cbn [bind]. unfold LINK_EXTS_CAP.
        destruct (len acc <? 3) eqn:E; [|lia].
        rewrite IH; [|exact Pr|rewrite len_app, len_cons, len_nil; lia].
        rewrite <- app_assoc. reflexivity.
      + apply IH; [exact Pr|lia].
  Qed.

  Lemma vlan_ids_wire p :
    Forall (ext_prov bs) (sp_exts p) -> len (sp_exts p) <= 3 ->
    vlan_ids p = Ok (wire_vids bs (v_exts (view p))).
  Proof.
    intros F L. unfold vlan_ids. rewrite (vlan_ids_loop_wire _ [] F) by (rewrite len_nil; lia).
    reflexivity.
  Qed.

  (* ---- IPv4 header ---- *)
  Lemma ipv4_acc_wire v :
    net_prov bs (NtIpv4 v) ->
    let h := v4_header v in let q := s_off h in
    Ipv4HeaderA.identification h = Ok (W bs (q + 4)) /\
    Ipv4HeaderA.more_fragments h = Ok (flag bs (q + 6) 2 2) /\
    Ipv4HeaderA.fragments_offset h = Ok (bits bs (q + 6) 2 3 13) /\
    Ipv4HeaderA.source h = Ok (bytes_at bs (q + 12) 4) /\
    Ipv4HeaderA.destination h = Ok (bytes_at bs (q + 16) 4) /\
    in_buf bs (ipp_slice (v4_payload v)).
  Proof.
    intros P h q. pose proof (net_fields_ok bs Hok _ P) as H.
    destruct P as (src & I & Hs).
    assert (WF : wf_ipv4 v /\ ipv4_in v src).
    { destruct Hs as [Hs|Hs]; [now apply ipv4_wf|exact (ip_wf _ _ Hs)]. }
    destruct WF as ((Wh & _) & (Sh & _ & Sp)). destruct Wh as (L1 & L2).
    pose proof (sub_of_in_buf _ _ _ I Sh) as Ih. pose proof (in_buf_repr _ _ Ih) as R.
    cbn [net_fields view_net spec_net] in H. binv H f Ef. binv H a Ea. injection H as H _.
    unfold win_of in H. cbn [fst snd] in H. fold h in Ef, R, L1. fold h q in H.
    unfold ipv4_fields in Ef.
    binv Ef f1 E1. binv Ef f2 E2. binv Ef f3 E3. binv Ef f4 E4. binv Ef f5 E5. binv Ef f6 E6.
    binv Ef f7 E7. binv Ef f8 E8. binv Ef f9 E9. binv Ef f10 E10. binv Ef f11 E11. binv Ef f12 E12.
    binv Ef f13 E13. binv Ef f14 E14. binv Ef f15 E15. injection Ef as <-.
    unfold ipv4_spec in H. injection H as _ _ _ _ _ Hid _ Hmf Hfo _ _ _ _ _ _.
    rewrite E6, E8, E9, Hid, Hmf, Hfo.
    unfold Ipv4HeaderA.source, Ipv4HeaderA.destination.
    rewrite (repr_rd_arr bs h _ _ 4 12 R), (repr_rd_arr bs h _ _ 4 16 R) by (cbn; lia).
    repeat split; try reflexivity.
    exact (sub_of_in_buf _ _ _ I Sp).
  Qed.
End Acc.


Fixpoint first_xfrag (l : list ext_item) : option slice :=
  match l with
  | [] => None
  | XFragment s :: _ => Some s
  | _ :: r => first_xfrag r
  end.
Fixpoint first_lfrag (ly : layers) : option fl :=
  match ly with
  | [] => None
  | (LFragment, f) :: _ => Some f
  | _ :: r => first_lfrag r
  end.

Lemma find_collect fuel : forall it l,
  Ipv6ExtIterA.collect fuel it = Ok l -> find_frag fuel it = Ok (first_xfrag l).
Proof.
  induction fuel as [|f IH]; intros it l H; [discriminate|].
  cbn [Ipv6ExtIterA.collect] in H. cbn [find_frag]. binv H o Eo. rewrite Eo. cbn [bind].
  destruct o as [[x it']|].
  - binv H r Er. injection H as <-. specialize (IH _ _ Er).
    destruct x; cbn [first_xfrag]; try exact IH. reflexivity.
  - injection H as <-. reflexivity.
Qed.

Lemma mapM_first l : forall ly, mapM item_fields l = Ok ly ->
  match first_xfrag l with
  | Some s => exists f, frag_fields s = Ok f /\ first_lfrag ly = Some f
  | None => first_lfrag ly = None
  end.
Proof.
  induction l as [|x l IH]; intros ly H; cbn [mapM] in H.
  - injection H as <-. reflexivity.
  - binv H y Ey. binv H ys Eys. injection H as <-. specialize (IH _ Eys).
    destruct x; cbn [item_fields] in Ey; binv Ey g Eg; injection Ey as <-;
      cbn [first_xfrag first_lfrag]; try exact IH.
    exists g. auto.
Qed.

Section Acc6.
  Variable bs : bytes.
  Hypothesis Hok : bytes_ok bs.

  Lemma chain_first fuel : forall nh pos lim,
    first_lfrag (chain_spec bs fuel nh pos lim) = option_map (frag_spec bs) (frag_pos bs fuel nh pos lim).
  Proof.
    induction fuel as [|f IH]; intros nh pos lim; [reflexivity|].
    cbn [chain_spec frag_pos]. destruct (lim <=? pos); [reflexivity|].
    destruct (nh =? 0); cbn [orb first_lfrag]; [apply IH|].
    destruct (nh =? 43); cbn [orb first_lfrag]; [apply IH|].
    destruct (nh =? 60); cbn [orb first_lfrag]; [apply IH|].
    destruct (nh =? 44); cbn [first_lfrag option_map]; [reflexivity|].
    destruct (nh =? 51); cbn [first_lfrag]; [apply IH|reflexivity].
  Qed.

  Lemma ipv6_acc_wire v :
    net_prov bs (NtIpv6 v) ->
    let h := v6_header v in let x := x6_slice (v6_exts v) in
    Ipv6HeaderA.source h = Ok (bytes_at bs (s_off h + 8) 16) /\
    Ipv6HeaderA.destination h = Ok (bytes_at bs (s_off h + 24) 16) /\
    in_buf bs (ipp_slice (v6_payload v)) /\
    match frag_pos bs (S (N.to_nat (s_len x))) (B bs (s_off h + 6)) (s_off x) (s_off x + s_len x) with
    | Some q =>
        exists f, first_frag (v6_exts v) = Ok (Some f) /\
          Ipv6FragmentHeaderA.next_header f = Ok (B bs q) /\
          Ipv6FragmentHeaderA.fragment_offset f = Ok (bits bs (q + 2) 2 0 13) /\
          Ipv6FragmentHeaderA.more_fragments f = Ok (flag bs (q + 2) 2 15) /\
          Ipv6FragmentHeaderA.identification f = Ok (num_at bs (q + 4) 4)
    | None => first_frag (v6_exts v) = Ok None
    end.
  Proof.
    intros P h x. pose proof (net_fields_ok bs Hok _ P) as H.
    destruct P as (src & I & Hs).
    assert (WF : wf_ipv6 v /\ ipv6_in v src).
    { destruct Hs as [Hs|Hs]; [now apply ipv6_wf|exact (ip_wf _ _ Hs)]. }
    destruct WF as (_ & (_ & _ & Sp)).
    cbn [net_fields view_net spec_net] in H. binv H f Ef. binv H items Ei. binv H xs Ex.
    unfold win_of in H. cbn [fst snd] in H. fold h x in H.
    remember (chain_spec bs (S (N.to_nat (s_len x))) (B bs (s_off h + 6)) (s_off x) (s_off x + s_len x)) as cs eqn:Hcs.
    remember (ipv6_spec bs (s_off h)) as s6 eqn:Hs6.
    injection H as H Hc. subst s6 cs. fold h in Ef.
    unfold ipv6_fields in Ef.
    binv Ef f1 E1. binv Ef f2 E2. binv Ef f3 E3. binv Ef f4 E4. binv Ef f5 E5. binv Ef f6 E6.
    binv Ef f7 E7. binv Ef f8 E8. injection Ef as <-.
    unfold ipv6_spec in H.
    remember (bytes_at bs (s_off h + 8) 16) as sa. remember (bytes_at bs (s_off h + 24) 16) as da.
    injection H as _ _ _ _ _ _ Hsrc Hdst.
    rewrite E7, E8, Hsrc, Hdst.
    split; [reflexivity|]. split; [reflexivity|]. split; [exact (sub_of_in_buf _ _ _ I Sp)|].
    pose proof (mapM_first _ _ Ex) as M. rewrite Hc, chain_first in M.
    unfold Ipv6ExtIterA.items in Ei. pose proof (find_collect _ _ _ Ei) as Ff.
    fold (first_frag (v6_exts v)) in Ff. rewrite Ff.
    destruct (frag_pos bs (S (N.to_nat (s_len x))) (B bs (s_off h + 6)) (s_off x) (s_off x + s_len x)) as [q|];
      cbn [option_map] in M.
    - destruct (first_xfrag items) as [s|]; [|discriminate].
      destruct M as (g & Eg & Hg). injection Hg as <-. exists s. split; [reflexivity|].
      unfold frag_fields in Eg. binv Eg a Ea. binv Eg b Eb. binv Eg c Ec. binv Eg d Ed.
      unfold frag_spec in Eg. injection Eg as -> -> -> ->. auto.
    - destruct (first_xfrag items) as [s|]; [|reflexivity].
      destruct M as (g & _ & Hg). discriminate.
  Qed.
End Acc6.


Definition key_view (k : frag_key) : wire_frag :=
  mkWireFrag (fk_id k) (fk_fo k) (fk_mf k) (win_of (ipp_slice (fk_payload k))) (fk_v4 k).

Lemma in_buf_bytes bs s : in_buf bs s -> snd s = bytes_n bs (s_off s) (s_len s).
Proof.
  intros I. pose proof (in_buf_repr _ _ I) as R. rewrite (repr_snd _ _ _ _ R). f_equal. lia.
Qed.

(* the packet the pool sees, from the reference decoder's view of the fragment *)
Definition pkt_of_wire (bs : bytes) (w : wire_frag) : pkt :=
  mkPkt (encode_id (wf_id w)) (id_is_v4 (fi_ip (wf_id w))) (fi_ipn (wf_id w)) (frag_of_wire bs w).

(* what key_wire says of a key, as one equation *)
Lemma pkt_of_key_wire bs k :
  k_frag (pkt_of_key k) = frag_of_wire bs (key_view k) /\
  k_ipn (pkt_of_key k) = fi_ipn (fk_id k) /\
  k_v4 (pkt_of_key k) = id_is_v4 (fi_ip (fk_id k)) /\
  is_fragmenting (k_frag (pkt_of_key k)) = true ->
  pkt_of_key k = pkt_of_wire bs (key_view k).
Proof.
  unfold pkt_of_key, pkt_of_wire. cbn [k_frag k_ipn k_v4 key_view wf_id]. now intros (-> & -> & -> & _).
Qed.

(* the shape of key_wire's conclusion when there is no key *)
Lemma no_key (Q : frag_key -> Prop) :
  exists ok : option frag_key, Ok None = Ok ok /\ option_map key_view ok = None /\
    forall k, ok = Some k -> Q k.
Proof. exists None. split; [reflexivity|]. split; [reflexivity|]. discriminate. Qed.

Theorem key_wire bs p chan :
  bytes_ok bs -> sliced_wf bs p -> len (sp_exts p) <= 3 ->
  exists ok, frag_key_of p chan = Ok ok /\
    option_map key_view ok = wire_key bs (view p) chan /\
    forall k, ok = Some k ->
      k_frag (pkt_of_key k) = frag_of_wire bs (key_view k) /\
      k_ipn (pkt_of_key k) = fi_ipn (fk_id k) /\
      k_v4 (pkt_of_key k) = id_is_v4 (fi_ip (fk_id k)) /\
      is_fragmenting (k_frag (pkt_of_key k)) = true.
Proof.
  intros Hok (_ & X & C & _) L. unfold frag_key_of, wire_key, view. cbn [v_net v_exts].
  pose proof (vlan_ids_wire bs Hok p X L) as Ev. unfold view in Ev. cbn [v_exts] in Ev.
  destruct (sp_net p) as [[v|v|a]|]; cbn [option_map view_net optP] in *.
  - destruct (ipv4_acc_wire bs Hok v C) as (Eid & Emf & Efo & Esrc & Edst & Ipl).
    cbn zeta in *. unfold win_of at 1. cbn [fst].
    unfold Ipv4HeaderA.is_fragmenting_payload. rewrite Emf, Efo. cbn [bind].
    fold (fragmenting (flag bs (s_off (v4_header v) + 6) 2 2) (bits bs (s_off (v4_header v) + 6) 2 3 13)).
    destruct (fragmenting _ _) eqn:Fr; cbn [negb].
    + rewrite Ev, Esrc, Edst, Eid. cbn [bind]. eexists. split; [reflexivity|]. split; [reflexivity|].
      intros k Ek. injection Ek as <-. unfold pkt_of_key, frag_of_wire, key_view. cbn.
      rewrite (in_buf_bytes _ _ Ipl). auto.
    + apply no_key.
  - destruct (ipv6_acc_wire bs Hok v C) as (Esrc & Edst & Ipl & Hf). cbn zeta in *.
    unfold win_of at 1 2 3 4. cbn [fst snd].
    destruct (frag_pos bs _ _ _ _) as [q|].
    + destruct Hf as (f & Ef & Enh & Efo & Emf & Eident). rewrite Ef. cbn [bind].
      unfold Ipv6FragmentHeaderA.is_fragmenting_payload, Ipv6FragmentHeaderA.to_header.
      rewrite Emf, Efo, Enh, Eident. cbn [bind].
      fold (fragmenting (flag bs (q + 2) 2 15) (bits bs (q + 2) 2 0 13)).
      destruct (fragmenting _ _) eqn:Fr.
      * rewrite Ev, Esrc, Edst. cbn [bind]. eexists. split; [reflexivity|]. split; [reflexivity|].
        intros k Ek. injection Ek as <-. unfold pkt_of_key, frag_of_wire, key_view. cbn.
        rewrite (in_buf_bytes _ _ Ipl). auto.
      * apply no_key.
    + rewrite Hf. cbn [bind]. apply no_key.
  - apply no_key.
  - apply no_key.
Qed.

(* ---- C. at most LINK_EXTS_CAP link extensions in a strict result (the ArrayVec<_, 3>) ---- *)
Section Cap.
  Import SlicedPacketCursor.

  Lemma transport_dispatch_exts c p r :
    transport_dispatch c p = Ok r -> sp_exts r = sp_exts (c_result c).
  Proof.
    unfold transport_dispatch, slice_icmp4, slice_udp, slice_tcp, slice_icmp6.
    repeat match goal with |- context[if ?b then _ else _] => destruct b end;
      intros H; try (injection H as <-; reflexivity);
      binv H t Et; injection H as <-; reflexivity.
  Qed.

  (* the three IP entry points: read the header, locate the payload, dispatch *)
  Lemma ip_dispatch_exts {A} (x : res A) c s (pay : A -> _) (net : A -> _) r :
    (let* ip := x in
     let* d := ptr_diff (ipp_slice (pay ip)) s in
     transport_dispatch (set_net c (c_offset c + d) (ipp_src (pay ip)) (net ip)) (pay ip)) = Ok r ->
    sp_exts r = sp_exts (c_result c).
  Proof. intros H. binv H ip Eip. binv H d Ed. now apply transport_dispatch_exts in H. Qed.

  Lemma slice_ipv4_exts c s r : slice_ipv4 c s = Ok r -> sp_exts r = sp_exts (c_result c).
  Proof. exact (ip_dispatch_exts _ c s v4_payload NtIpv4 r). Qed.
  Lemma slice_ipv6_exts c s r : slice_ipv6 c s = Ok r -> sp_exts r = sp_exts (c_result c).
  Proof. exact (ip_dispatch_exts _ c s v6_payload NtIpv6 r). Qed.
  Lemma slice_ip_exts c s r : slice_ip c s = Ok r -> sp_exts r = sp_exts (c_result c).
  Proof.
    exact (ip_dispatch_exts _ c s IpSlice.payload
             (fun ip => match ip with IpV4 v => NtIpv4 v | IpV6 v => NtIpv6 v end) r).
  Qed.
  Lemma slice_arp_exts c s r : slice_arp c s = Ok r -> sp_exts r = sp_exts (c_result c).
  Proof. unfold slice_arp. intros H. binv H a Ea. injection H as <-. reflexivity. Qed.

  Lemma ether_loop_cap fuel : forall c ep r,
    len (sp_exts (c_result c)) <= 3 -> slice_ether_type_loop fuel c ep = Ok r -> len (sp_exts r) <= 3.
  Proof.
    induction fuel as [|f IH]; intros c ep r L H; [discriminate|].
    cbn [slice_ether_type_loop] in H. unfold LINK_EXTS_CAP in H.
    destruct (is_vlan_type (ep_ether_type ep)).
    { destruct (3 <=? len (sp_exts (c_result c))) eqn:E; [injection H as <-; exact L|].
      binv H vlan Ev. binv H vp Evp. binv H c' Ec'.
      apply view_push_ext in Ec'. destruct Ec' as (_ & _ & _ & Lc). eapply IH; [|exact H]. lia. }
    destruct (ep_ether_type ep =? ET_MACSEC).
    { destruct (3 <=? len (sp_exts (c_result c))) eqn:E; [injection H as <-; exact L|].
      binv H m Em. binv H hl Ehl. binv H sl Esl. binv H c' Ec'.
      apply view_push_ext in Ec'. destruct Ec' as (_ & _ & _ & Lc).
      destruct (ms_payload m); [eapply IH; [|exact H]; lia|injection H as <-; lia]. }
    destruct (ep_ether_type ep =? ET_ARP); [apply slice_arp_exts in H; now rewrite H|].
    destruct (ep_ether_type ep =? ET_IPV4); [apply slice_ipv4_exts in H; now rewrite H|].
    destruct (ep_ether_type ep =? ET_IPV6); [apply slice_ipv6_exts in H; now rewrite H|].
    injection H as <-. exact L.
  Qed.

  Lemma exts_cap_entry e bs p : slice_with e bs = Ok p -> len (sp_exts p) <= 3.
  Proof.
    destruct e as [| |et|]; cbn [slice_with]; intros H.
    - unfold SlicedPacket.from_ethernet, slice_ethernet2 in H. binv H r Er. binv H ep Eep.
      unfold slice_ether_type in H. eapply ether_loop_cap; [|exact H]. cbn. lia.
    - unfold SlicedPacket.from_linux_sll, slice_linux_sll in H. binv H r Er. destruct r as (h, whole).
      binv H pt Ept. binv H pl Epl.
      destruct pt; try (injection H as <-; cbn; lia).
      unfold slice_ether_type in H. eapply ether_loop_cap; [|exact H]. cbn. lia.
    - unfold SlicedPacket.from_ether_type, slice_ether_type in H.
      eapply ether_loop_cap; [|exact H]. cbn. lia.
    - unfold SlicedPacket.from_ip in H. apply slice_ip_exts in H. rewrite H. cbn. lia.
  Qed.
End Cap.

(* ---- D. every entry point: the model's key is the wire key; never Bug ---- *)
Lemma slice_with_wf e bs p : slice_with e bs = Ok p -> sliced_wf bs p.
Proof.
  intros H. apply (sliced_wf_entry bs (match e with EEtherType et => et | _ => 0 end) p).
  destruct e; cbn [slice_with] in H; auto.
Qed.

Lemma slice_with_rel e bs : bytes_ok bs -> res_rel (vres_of (slice_with e bs)) (wire_with e bs).
Proof.
  intros Hok. destruct e; cbn [slice_with wire_with].
  - now apply from_ethernet_rel.
  - now apply from_linux_sll_rel.
  - now apply from_ether_type_rel.
  - now apply from_ip_rel.
Qed.

Theorem packet_key e bs chan : bytes_ok bs ->
  match slice_with e bs with
  | Ok p =>
      wire_with e bs = VOk (View.view p) /\
      exists ok, frag_key_of p chan = Ok ok /\
        option_map key_view ok = wire_frag_of e bs chan /\
        forall k, ok = Some k ->
          k_frag (pkt_of_key k) = frag_of_wire bs (key_view k) /\
          k_ipn (pkt_of_key k) = fi_ipn (fk_id k) /\
          k_v4 (pkt_of_key k) = id_is_v4 (fi_ip (fk_id k)) /\
          is_fragmenting (k_frag (pkt_of_key k)) = true
  | Err _ => wire_frag_of e bs chan = None
  | Bug _ => False
  end.
Proof.
  intros Hok. pose proof (slice_with_rel e bs Hok) as R. unfold wire_frag_of.
  destruct (slice_with e bs) as [p|err|b] eqn:E; cbn [vres_of] in R.
  - assert (Ew : wire_with e bs = VOk (View.view p)).
    { unfold res_rel in R. destruct (wire_with e bs); [now subst|contradiction|contradiction]. }
    split; [exact Ew|]. rewrite Ew.
    apply (key_wire bs p chan Hok (slice_with_wf _ _ _ E) (exts_cap_entry _ _ _ E)).
  - unfold res_rel in R. destruct (wire_with e bs) as [v|e'|b]; [destruct err; contradiction|reflexivity|reflexivity].
  - exact R.
Qed.

(* ---- E. pass-through: no key exactly for the packets that are not fragments on the wire ---- *)
Definition wire_unfragmented (bs : bytes) (v : vpacket) : Prop :=
  match v_net v with
  | Some (VIpv4 h _ _) =>
      flag bs (fst h + 6) 2 2 = false /\ bits bs (fst h + 6) 2 3 13 = 0
  | Some (VIpv6 h _ _ x _) =>
      match frag_pos bs (S (N.to_nat (snd x))) (B bs (fst h + 6)) (fst x) (fst x + snd x) with
      | Some q => flag bs (q + 2) 2 15 = false /\ bits bs (q + 2) 2 0 13 = 0
      | None => True
      end
  | Some (VArp _) | None => True
  end.

Lemma fragmenting_false mf fo : fragmenting mf fo = false <-> mf = false /\ fo = 0.
Proof.
  unfold fragmenting. destruct mf; cbn [orb]; [split; [discriminate|intros [H _]; discriminate]|].
  destruct (N.eqb_spec fo 0); cbn [negb]; split; auto; try discriminate. intros [_ H]. contradiction.
Qed.

Lemma wire_key_none_iff bs v chan : wire_key bs v chan = None <-> wire_unfragmented bs v.
Proof.
  unfold wire_key, wire_unfragmented.
  destruct (v_net v) as [[h a pl|h fi fr x pl|w]|]; try tauto.
  - rewrite <- fragmenting_false. destruct (fragmenting _ _); split; auto; discriminate.
  - destruct (frag_pos bs _ _ _ _) as [q|]; [|tauto].
    rewrite <- fragmenting_false. destruct (fragmenting _ _); split; auto; discriminate.
Qed.

Theorem packet_passthrough e bs p chan : bytes_ok bs -> slice_with e bs = Ok p ->
  (frag_key_of p chan = Ok None <-> wire_unfragmented bs (View.view p)) /\
  (wire_unfragmented bs (View.view p) ->
   forall pl ts, process_sliced_packet pl p ts chan = Ok (PNone, pl)).
Proof.
  intros Hok E. pose proof (packet_key e bs chan Hok) as K. rewrite E in K.
  destruct K as (Ew & ok & Ek & Ev & _). unfold wire_frag_of in Ev. rewrite Ew in Ev.
  assert (X : frag_key_of p chan = Ok None <-> wire_unfragmented bs (View.view p)).
  { rewrite <- (wire_key_none_iff bs (View.view p) chan), <- Ev, Ek.
    destruct ok; cbn [option_map]; split; intros H; try discriminate; reflexivity. }
  split; [exact X|]. intros U pl ts. unfold process_sliced_packet. apply X in U. rewrite U. reflexivity.
Qed.

(* a packet that is a fragment: the pool model of Defrag/Model.v is run on the wire fields *)
Theorem packet_fragment e bs p chan w : bytes_ok bs -> slice_with e bs = Ok p ->
  wire_key bs (View.view p) chan = Some w ->
  forall pl ts,
    process_sliced_packet pl p ts chan =
      Ok (process pl (mkPkt (encode_id (wf_id w)) (id_is_v4 (fi_ip (wf_id w))) (fi_ipn (wf_id w))
                        (frag_of_wire bs w)) ts) /\
    is_fragmenting (frag_of_wire bs w) = true.
Proof.
  intros Hok E Hw pl ts. pose proof (packet_key e bs chan Hok) as K. rewrite E in K.
  destruct K as (Ew & ok & Ek & Ev & Hk). unfold wire_frag_of in Ev. rewrite Ew, Hw in Ev.
  destruct ok as [k|]; [|discriminate]. injection Ev as Ev.
  pose proof (pkt_of_key_wire bs k (Hk k eq_refl)) as Ep. destruct (Hk k eq_refl) as (_ & _ & _ & H4).
  rewrite Ev in Ep. unfold process_sliced_packet. rewrite Ek. cbn [bind].
  fold (pkt_of_wire bs w). rewrite <- Ep. split; [reflexivity|]. rewrite Ep in H4. exact H4.
Qed.

(* ---- F. packet histories ---- *)
Module DP := Defrag.Proofs.

Fixpoint lower (ops : list pk_op) : list DP.pool_op :=
  match ops with
  | [] => []
  | KPacket e bs ts chan :: r =>
      match slice_with e bs with
      | Ok p => match frag_key_of p chan with
                | Ok (Some k) => DP.ODeliver (pkt_of_key k) ts :: lower r
                | _ => lower r
                end
      | _ => lower r
      end
  | KReturn payload :: r => DP.OReturn payload :: lower r
  end.

Lemma pk_trace_lower ops : forall pl, Forall op_bytes_ok ops ->
  exists tr, pk_trace pl ops = Ok tr /\
    forall id, answers_for id tr = DP.results_for id (DP.pool_trace pl (lower ops)).
Proof.
  induction ops as [|o ops IH]; intros pl F.
  - exists []. split; reflexivity.
  - inversion F as [|? ? Ho Fr]; subst. cbn [pk_trace lower].
    destruct o as [e bs ts chan|payload]; cbn [pk_step op_bytes_ok] in *.
    + pose proof (packet_key e bs chan Ho) as K.
      destruct (slice_with e bs) as [p|err|b]; [| |contradiction].
      * destruct K as (_ & ok & Ek & _). rewrite Ek. cbn [bind].
        destruct ok as [k|].
        -- cbn [DP.pool_trace]. destruct (process pl (pkt_of_key k) ts) as [r pl'] eqn:Ep.
           cbn [bind fst snd]. destruct (IH pl' Fr) as (tr & Et & Ha). rewrite Et. cbn [bind].
           eexists. split; [reflexivity|]. intros id. unfold answers_for, DP.results_for.
           cbn [filter fst map snd pkt_of_key k_id].
           destruct (fid_eqb (encode_id (fk_id k)) id); cbn [map snd]; [f_equal|]; apply Ha.
        -- cbn [bind fst snd]. destruct (IH pl Fr) as (tr & Et & Ha). rewrite Et. cbn [bind].
           eexists. split; [reflexivity|]. intros id. unfold answers_for. cbn [filter fst]. apply Ha.
      * cbn [bind fst snd]. destruct (IH pl Fr) as (tr & Et & Ha). rewrite Et. cbn [bind].
        eexists. split; [reflexivity|]. intros id. unfold answers_for. cbn [filter fst]. apply Ha.
    + cbn [bind fst snd DP.pool_trace]. destruct (IH (return_buf pl payload) Fr) as (tr & Et & Ha).
      rewrite Et. cbn [bind]. eexists. split; [reflexivity|]. intros id. unfold answers_for. cbn [filter fst]. apply Ha.
Qed.

(* the datagram id i as the pool model's packet *)
Definition pkt_for (i : frag_id) (ft : frag * N) : pkt * N :=
  (mkPkt (encode_id i) (id_is_v4 (fi_ip i)) (fi_ipn i) (fst ft), snd ft).

Lemma for_id_lower i ops : Forall op_bytes_ok ops ->
  DP.for_id (encode_id i) (lower ops) = map (pkt_for i) (wire_for i ops).
Proof.
  induction ops as [|o ops IH]; intros F; [reflexivity|].
  inversion F as [|? ? Ho Fr]; subst. specialize (IH Fr). cbn [lower wire_for].
  destruct o as [e bs ts chan|payload]; cbn [op_bytes_ok] in *; [|exact IH].
  pose proof (packet_key e bs chan Ho) as K.
  destruct (slice_with e bs) as [p|err|b]; [| |contradiction].
  - destruct K as (_ & ok & Ek & Ev & Hk). rewrite Ek, <- Ev.
    destruct ok as [k|]; cbn [option_map]; [|exact IH].
    rewrite (pkt_of_key_wire bs k (Hk k eq_refl)). cbn [DP.for_id pkt_of_wire k_id key_view wf_id].
    destruct (fid_eqb (encode_id (fk_id k)) (encode_id i)) eqn:Eq; [|exact IH].
    apply fid_eqb_encode in Eq. cbn [map]. rewrite IH. now rewrite <- Eq.
  - rewrite K. exact IH.
Qed.

(* packet-level isolation: the answers to the packets of one datagram id inside ANY packet history
   are the answers its own wire fragments get alone *)
Theorem packets_isolation pl i ops : Forall op_bytes_ok ops ->
  exists tr, pk_trace pl ops = Ok tr /\
    answers_for (encode_id i) tr =
      DP.stream_trace (DP.view (encode_id i) pl) (map (pkt_for i) (wire_for i ops)).
Proof.
  intros F. destruct (pk_trace_lower ops pl F) as (tr & Et & Ha). exists tr. split; [exact Et|].
  rewrite Ha, DP.isolation, for_id_lower by exact F. reflexivity.
Qed.

Lemma wire_key_fragmenting bs v chan w : wire_key bs v chan = Some w -> fragmenting (wf_mf w) (wf_fo w) = true.
Proof.
  unfold wire_key. destruct (v_net v) as [[h a pl|h fi fr x pl|a]|]; try discriminate.
  - destruct (fragmenting _ _) eqn:Fr; [|discriminate]. intros H. injection H as <-. exact Fr.
  - destruct (frag_pos bs _ _ _ _) as [q|]; [|discriminate].
    destruct (fragmenting _ _) eqn:Fr; [|discriminate]. intros H. injection H as <-. exact Fr.
Qed.

Lemma wire_for_fragmenting i ops g t : In (g, t) (wire_for i ops) -> is_fragmenting g = true.
Proof.
  induction ops as [|o ops IH]; cbn [wire_for]; [intros []|].
  destruct o as [e bs ts chan|payload]; [|exact IH].
  destruct (wire_frag_of e bs chan) as [w|] eqn:Ew; [|exact IH].
  destruct (fid_eqb _ _); [|exact IH]. intros [H|H]; [|exact (IH H)].
  injection H as <- _. unfold wire_frag_of in Ew. destruct (wire_with e bs); try discriminate.
  exact (wire_key_fragmenting _ _ _ _ Ew).
Qed.

(* any interleaving of packets: the fragments of the datagram with id i (whatever else is in the
   history: fragments of datagrams that differ from i in at least one key field, unfragmented
   packets, frames the slicer rejects, buffer returns) -- nothing is returned for i while its
   fragments do not cover P, the packet that completes the cover is answered with P, once *)
Theorem packets_complete P i ops pl ks f ts :
  len P <= 65535 -> Forall op_bytes_ok ops ->
  DP.view (encode_id i) pl = None ->
  wire_for i ops = ks ++ [(f, ts)] ->
  (forall g, In g (map fst ks) -> frag_of P g) -> frag_of P f ->
  (forall j, (j <= length ks)%nat -> ~ Covered P (firstn j (map fst ks))) ->
  Covered P (map fst ks ++ [f]) ->
  exists tr, pk_trace pl ops = Ok tr /\
    answers_for (encode_id i) tr =
      map (fun _ => PNone) ks ++ [PDone (fi_ipn i) (id_is_v4 (fi_ip i)) (map Some P)].
Proof.
  intros HP F Hv Hw Hks Hf Hnc Hc.
  destruct (packets_isolation pl i ops F) as (tr & Et & Ha). exists tr. split; [exact Et|].
  rewrite Ha, Hv, Hw, map_app. cbn [map].
  assert (Hfr : forall g t, In (g, t) (ks ++ [(f, ts)]) -> is_fragmenting g = true).
  { intros g t Hin. rewrite <- Hw in Hin. exact (wire_for_fragmenting _ _ _ _ Hin). }
  assert (Efr : DP.frags_of (map (pkt_for i) ks) = map fst ks).
  { unfold DP.frags_of. rewrite map_map. apply map_ext. intros (g, t). reflexivity. }
  destruct (DP.pool_completes P HP (map (pkt_for i) ks) (fst (pkt_for i (f, ts))) ts) as (Ht & _).
  - intros kt Hin. apply in_map_iff in Hin. destruct Hin as ((g, t) & <- & Hin). split; cbn.
    + apply Hks. apply in_map_iff. exists (g, t). auto.
    + apply (Hfr g t). apply in_or_app. auto.
  - split; cbn; [exact Hf|]. apply (Hfr f ts). apply in_or_app. right. left. reflexivity.
  - intros j Hj. rewrite Efr. apply Hnc. rewrite map_length in Hj. exact Hj.
  - rewrite Efr. exact Hc.
  - change (pkt_for i (f, ts)) with (fst (pkt_for i (f, ts)), ts).
    rewrite Ht. rewrite map_map. reflexivity.
Qed.

(* ---- G. which wire fields make the stream id: exactly these, nothing else ---- *)
Theorem same_stream_v4_wire bs1 bs2 v1 v2 c1 c2 h1 a1 pl1 h2 a2 pl2 w1 w2 :
  v_net v1 = Some (VIpv4 h1 a1 pl1) -> v_net v2 = Some (VIpv4 h2 a2 pl2) ->
  wire_key bs1 v1 c1 = Some w1 -> wire_key bs2 v2 c2 = Some w2 ->
  (encode_id (wf_id w1) = encode_id (wf_id w2) <->
   wire_vids bs1 (v_exts v1) = wire_vids bs2 (v_exts v2) /\
   bytes_at bs1 (fst h1 + 12) 4 = bytes_at bs2 (fst h2 + 12) 4 /\
   bytes_at bs1 (fst h1 + 16) 4 = bytes_at bs2 (fst h2 + 16) 4 /\
   W bs1 (fst h1 + 4) = W bs2 (fst h2 + 4) /\
   vip_number pl1 = vip_number pl2 /\
   c1 = c2).
Proof.
  intros N1 N2. unfold wire_key. rewrite N1, N2.
  destruct (fragmenting _ _); [|discriminate]. destruct (fragmenting _ _); [|discriminate].
  intros H1 H2. injection H1 as <-. injection H2 as <-. rewrite same_stream_iff. cbn. tauto.
Qed.

Theorem same_stream_v6_wire bs1 bs2 v1 v2 c1 c2 h1 f1 g1 x1 pl1 h2 f2 g2 x2 pl2 q1 q2 w1 w2 :
  v_net v1 = Some (VIpv6 h1 f1 g1 x1 pl1) -> v_net v2 = Some (VIpv6 h2 f2 g2 x2 pl2) ->
  frag_pos bs1 (S (N.to_nat (snd x1))) (B bs1 (fst h1 + 6)) (fst x1) (fst x1 + snd x1) = Some q1 ->
  frag_pos bs2 (S (N.to_nat (snd x2))) (B bs2 (fst h2 + 6)) (fst x2) (fst x2 + snd x2) = Some q2 ->
  wire_key bs1 v1 c1 = Some w1 -> wire_key bs2 v2 c2 = Some w2 ->
  (encode_id (wf_id w1) = encode_id (wf_id w2) <->
   wire_vids bs1 (v_exts v1) = wire_vids bs2 (v_exts v2) /\
   bytes_at bs1 (fst h1 + 8) 16 = bytes_at bs2 (fst h2 + 8) 16 /\
   bytes_at bs1 (fst h1 + 24) 16 = bytes_at bs2 (fst h2 + 24) 16 /\
   num_at bs1 (q1 + 4) 4 = num_at bs2 (q2 + 4) 4 /\
   vip_number pl1 = vip_number pl2 /\
   c1 = c2).
Proof.
  intros N1 N2 Q1 Q2. unfold wire_key. rewrite N1, N2, Q1, Q2.
  destruct (fragmenting _ _); [|discriminate]. destruct (fragmenting _ _); [|discriminate].
  intros H1 H2. injection H1 as <-. injection H2 as <-. rewrite same_stream_iff.
  cbn [wf_id fi_vlans fi_ip fi_ipn fi_chan id_is_v4 id_src id_dst id_ident]. tauto.
Qed.

Theorem diff_version_wire bs1 bs2 v1 v2 c1 c2 h1 a1 pl1 h2 f2 g2 x2 pl2 w1 w2 :
  v_net v1 = Some (VIpv4 h1 a1 pl1) -> v_net v2 = Some (VIpv6 h2 f2 g2 x2 pl2) ->
  wire_key bs1 v1 c1 = Some w1 -> wire_key bs2 v2 c2 = Some w2 ->
  encode_id (wf_id w1) <> encode_id (wf_id w2).
Proof.
  intros N1 N2. unfold wire_key. rewrite N1, N2.
  destruct (fragmenting _ _); [|discriminate]. destruct (frag_pos bs2 _ _ _ _); [|discriminate].
  destruct (fragmenting _ _); [|discriminate].
  intros H1 H2. injection H1 as <-. injection H2 as <-. rewrite same_stream_iff. cbn.
  intros (_ & H & _). discriminate.
Qed.

(* the model's id of a sliced packet IS the wire id (packet_key), so for two sliceable packets:
   same stream in the pool <=> same wire id *)
Theorem packets_same_stream e1 bs1 c1 p1 k1 e2 bs2 c2 p2 k2 :
  bytes_ok bs1 -> bytes_ok bs2 ->
  slice_with e1 bs1 = Ok p1 -> slice_with e2 bs2 = Ok p2 ->
  frag_key_of p1 c1 = Ok (Some k1) -> frag_key_of p2 c2 = Ok (Some k2) ->
  exists w1 w2,
    wire_key bs1 (View.view p1) c1 = Some w1 /\ wire_key bs2 (View.view p2) c2 = Some w2 /\
    wire_with e1 bs1 = VOk (View.view p1) /\ wire_with e2 bs2 = VOk (View.view p2) /\
    (k_id (pkt_of_key k1) = k_id (pkt_of_key k2) <-> wf_id w1 = wf_id w2).
Proof.
  intros O1 O2 S1 S2 K1 K2.
  pose proof (packet_key e1 bs1 c1 O1) as A. rewrite S1 in A. destruct A as (W1 & ok1 & E1 & V1 & _).
  pose proof (packet_key e2 bs2 c2 O2) as A. rewrite S2 in A. destruct A as (W2 & ok2 & E2 & V2 & _).
  rewrite K1 in E1. injection E1 as <-. rewrite K2 in E2. injection E2 as <-.
  unfold wire_frag_of in V1, V2. rewrite W1 in V1. rewrite W2 in V2. cbn [option_map] in V1, V2.
  exists (key_view k1), (key_view k2). repeat split; auto.
  - cbn. apply encode_id_inj.
  - cbn. intros ->. reflexivity.
Qed.
