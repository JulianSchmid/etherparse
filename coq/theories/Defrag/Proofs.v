(* Defrag/Proofs.v -- lemmas about Defrag/Model.v and Defrag/Spec.v: lists indexed
   by N; ranges and retain_merge; the verdict of `add` (`check`, shared with the
   Spec) and that it never panics; the invariant Inv; the simulation Model / Spec
   for every history, completeness and payload; which histories are accepted
   (consistent sets, in any order) and fragments of one payload; the pool
   (isolation of streams, nothing unwritten is ever returned). *)
From Coq Require Import Permutation.
From EP Require Import Base.Bytes Base.Lists Defrag.Spec Defrag.Model.
Local Open Scope N_scope.

(* ---------- lists indexed by N ---------- *)
Definition dget {A} (d : list A) (i : N) : option A := nth_error d (N.to_nat i).

Lemma dget_lt {A} (d : list A) i : i < len d -> exists x, dget d i = Some x.
Proof.
  unfold dget, len. intros H. destruct (nth_error d (N.to_nat i)) eqn:E; eauto.
  apply nth_error_None in E. lia.
Qed.

Lemma dget_ge {A} (d : list A) i : len d <= i -> dget d i = None.
Proof. unfold dget, len. intros H. apply nth_error_None. lia. Qed.

Lemma dget_Some_lt {A} (d : list A) i x : dget d i = Some x -> i < len d.
Proof.
  unfold dget, len. intros H.
  assert (N.to_nat i < length d)%nat by (apply nth_error_Some; congruence). lia.
Qed.

Lemma dget_app {A} (a b : list A) i :
  dget (a ++ b) i = if i <? len a then dget a i else dget b (i - len a).
Proof.
  unfold dget, len. destruct (N.ltb_spec i (N.of_nat (length a))).
  - rewrite nth_error_app1 by lia. reflexivity.
  - rewrite nth_error_app2 by lia. f_equal. lia.
Qed.

Lemma nth_error_firstn' {A} : forall n (l : list A) k,
  nth_error (firstn n l) k = if (k <? n)%nat then nth_error l k else None.
Proof.
  induction n as [|n IH]; intros l k.
  - cbn. destruct k; reflexivity.
  - destruct l as [|x l]; cbn [firstn].
    + destruct k; cbn [nth_error]; destruct (Nat.ltb _ _); reflexivity.
    + destruct k as [|k]; [reflexivity|]. cbn [nth_error]. rewrite IH. reflexivity.
Qed.

Lemma nth_error_skipn' {A} : forall n (l : list A) k,
  nth_error (skipn n l) k = nth_error l (n + k).
Proof.
  induction n as [|n IH]; intros l k; [reflexivity|].
  destruct l as [|x l]; cbn [skipn].
  - destruct k; reflexivity.
  - apply IH.
Qed.

Lemma dget_take {A} n (d : list A) i : dget (take n d) i = if i <? n then dget d i else None.
Proof.
  unfold dget, take. rewrite nth_error_firstn'.
  destruct (N.ltb_spec i n); destruct (Nat.ltb_spec (N.to_nat i) (N.to_nat n)); try reflexivity; lia.
Qed.

Lemma dget_drop {A} n (d : list A) i : dget (drop n d) i = dget d (n + i).
Proof. unfold dget, drop. rewrite nth_error_skipn'. f_equal. lia. Qed.

Lemma dget_repeat {A} (x : A) k i : dget (repeat x k) i = if i <? N.of_nat k then Some x else None.
Proof.
  unfold dget. destruct (N.ltb_spec i (N.of_nat k)).
  - assert (Hk : (N.to_nat i < k)%nat) by lia. clear H. revert Hk. generalize (N.to_nat i) as m.
    induction k as [|k IH]; intros m Hm; [lia|]. destruct m; [reflexivity|]. cbn. apply IH. lia.
  - apply nth_error_None. rewrite repeat_length. lia.
Qed.

Lemma dget_map {A B} (f : A -> B) d i : dget (map f d) i = option_map f (dget d i).
Proof.
  unfold dget. generalize (N.to_nat i) as m. induction d as [|x d IH]; intros m.
  - destruct m; reflexivity.
  - destruct m; [reflexivity|]. cbn. apply IH.
Qed.

Lemma nth_error_ext' {A} : forall (a b : list A), (forall n, nth_error a n = nth_error b n) -> a = b.
Proof.
  induction a as [|x a IH]; intros b H.
  - destruct b; [reflexivity|]. specialize (H O). discriminate.
  - destruct b as [|y b]; [specialize (H O); discriminate|].
    f_equal.
    + specialize (H O). cbn in H. congruence.
    + apply IH. intros n. apply (H (S n)).
Qed.

Lemma dget_ext {A} (a b : list A) : (forall i, dget a i = dget b i) -> a = b.
Proof.
  intros H. apply nth_error_ext'. intros n. specialize (H (N.of_nat n)).
  unfold dget in H. rewrite Nat2N.id in H. exact H.
Qed.

Lemma rd_dget (p : bytes) i : rd p i = dget p i.
Proof. reflexivity. Qed.

(* grow / write *)
Lemma len_grow d e : len (grow d e) = N.max (len d) e.
Proof.
  unfold grow. destruct (N.ltb_spec (len d) e).
  - rewrite len_app, len_repeat. lia.
  - lia.
Qed.

Lemma dget_grow d e i :
  dget (grow d e) i = if i <? len d then dget d i else if i <? e then Some None else None.
Proof.
  unfold grow. destruct (N.ltb_spec (len d) e) as [H|H].
  - rewrite dget_app. destruct (N.ltb_spec i (len d)); [reflexivity|].
    rewrite dget_repeat.
    destruct (N.ltb_spec (i - len d) (N.of_nat (N.to_nat (e - len d)))); destruct (N.ltb_spec i e);
      try reflexivity; lia.
  - destruct (N.ltb_spec i (len d)); [reflexivity|].
    rewrite dget_ge by lia. destruct (N.ltb_spec i e); [lia|reflexivity].
Qed.

Lemma len_write d off p : off + len p <= len d -> len (write d off p) = len d.
Proof.
  intros H. unfold write. rewrite !len_app, len_take, len_map, len_drop. lia.
Qed.

Lemma dget_write d off p i : off + len p <= len d ->
  dget (write d off p) i =
    if (off <=? i) && (i <? off + len p) then option_map Some (rd p (i - off)) else dget d i.
Proof.
  intros H. unfold write. rewrite dget_app, len_take.
  replace (N.min off (len d)) with off by lia.
  destruct (N.ltb_spec i off) as [H1|H1].
  - rewrite dget_take. destruct (N.leb_spec off i); [lia|]. cbn [andb].
    destruct (N.ltb_spec i off); [reflexivity|lia].
  - destruct (N.leb_spec off i); [|lia]. cbn [andb].
    rewrite dget_app, len_map.
    destruct (N.ltb_spec (i - off) (len p)); destruct (N.ltb_spec i (off + len p)); try lia.
    + rewrite dget_map. reflexivity.
    + rewrite dget_drop. f_equal. lia.
Qed.
(* ---------- ranges ---------- *)
Definition wf (r : range) : Prop := r_start r <= r_end r.
Definition inr (r : range) (i : N) : Prop := r_start r <= i < r_end r.
(* closed intervals disjoint: neither overlapping nor touching *)
Definition disj (a b : range) : Prop := r_end a < r_start b \/ r_end b < r_start a.
Definition covered (ss : list range) (i : N) : Prop := exists r, In r ss /\ inr r i.

Lemma disj_sym a b : disj a b -> disj b a.
Proof. unfold disj. tauto. Qed.

Lemma connected_iff r v : is_value_connected r v = true <-> r_start r <= v <= r_end r.
Proof. unfold is_value_connected. rewrite andb_true_iff, !N.leb_le. tauto. Qed.

Lemma merge_spec a b : wf a -> wf b ->
  match merge a b with
  | Some m => ~ disj a b /\ m = mkRange (N.min (r_start a) (r_start b)) (N.max (r_end a) (r_end b))
  | None => disj a b
  end.
Proof.
  unfold merge, wf, disj. intros Ha Hb.
  destruct (is_value_connected a (r_start b) || is_value_connected a (r_end b)
            || is_value_connected b (r_start a) || is_value_connected b (r_end a)) eqn:E.
  - rewrite !orb_true_iff, !connected_iff in E. split; [lia|reflexivity].
  - assert (E' : ~ (((r_start a <= r_start b <= r_end a \/ r_start a <= r_end b <= r_end a)
                     \/ r_start b <= r_start a <= r_end b) \/ r_start b <= r_end a <= r_end b)).
    { rewrite <- !connected_iff, <- !orb_true_iff, E. discriminate. }
    lia.
Qed.

(* ---------- retain_merge ---------- *)
Lemma covered_cons x l i : covered (x :: l) i <-> inr x i \/ covered l i.
Proof.
  unfold covered. split.
  - intros (r & [->|Hr] & Hi); [left; exact Hi|right; eauto].
  - intros [Hi|(r & Hr & Hi)]; [exists x|exists r]; cbn [In]; auto.
Qed.

Lemma rm_basic : forall l ns ns' k, retain_merge ns l = (ns', k) ->
  wf ns -> (forall r, In r l -> wf r) ->
  wf ns' /\
  (forall x, In x k -> In x l) /\
  r_start ns' <= r_start ns /\ r_end ns <= r_end ns' /\
  (forall x, In x l -> In x k \/ (r_start ns' <= r_start x /\ r_end x <= r_end ns')) /\
  (r_end ns' = r_end ns \/ exists x, In x l /\ r_end x = r_end ns') /\
  (forall i, inr ns' i \/ covered k i <-> inr ns i \/ covered l i).
Proof.
  induction l as [|it r IH]; intros ns ns' k E Hns Hl; cbn [retain_merge] in E.
  - inversion E; subst. repeat split; try tauto; try lia; auto.
  - assert (Hit : wf it) by (apply Hl; left; reflexivity).
    assert (Hr : forall x, In x r -> wf x) by (intros x Hx; apply Hl; right; exact Hx).
    pose proof (merge_spec ns it Hns Hit) as M.
    destruct (merge ns it) as [m|].
    + destruct M as [Hnd Hm].
      assert (Hwm : wf m) by (subst m; unfold wf in *; cbn; lia).
      destruct (IH m ns' k E Hwm Hr) as (W & Hin & Hs & He & Hab & Hmax & Hcov).
      assert (Hms : r_start m = N.min (r_start ns) (r_start it)) by (subst m; reflexivity).
      assert (Hme : r_end m = N.max (r_end ns) (r_end it)) by (subst m; reflexivity).
      split; [exact W|]. split; [intros x Hx; right; apply Hin; exact Hx|].
      split; [lia|]. split; [lia|].
      split.
      { intros x [Hx|Hx]; [subst x; right; lia | apply Hab; exact Hx]. }
      split.
      { destruct Hmax as [Hmax|(x & Hx & Hxe)].
        - destruct (N.max_spec (r_end ns) (r_end it)) as [[_ Q]|[_ Q]].
          + right. exists it. split; [left; reflexivity|lia].
          + left. lia.
        - right. exists x. split; [right; exact Hx|exact Hxe]. }
      intros i. rewrite Hcov, covered_cons.
      assert (Hm' : inr m i <-> inr ns i \/ inr it i) by (unfold inr, wf, disj in *; lia). tauto.
    + destruct (retain_merge ns r) as [ns0 k0] eqn:E0. inversion E; subst ns0 k. clear E.
      destruct (IH ns ns' k0 E0 Hns Hr) as (W & Hin & Hs & He & Hab & Hmax & Hcov).
      split; [exact W|]. split.
      { intros x [Hx|Hx]; [left; exact Hx|right; apply Hin; exact Hx]. }
      split; [exact Hs|]. split; [exact He|]. split.
      { intros x [Hx|Hx]; [left; left; exact Hx|].
        destruct (Hab x Hx) as [Q|Q]; [left; right; exact Q|right; exact Q]. }
      split.
      { destruct Hmax as [Hmax|(x & Hx & Hxe)]; [left; exact Hmax|right; exists x; split; [right; exact Hx|exact Hxe]]. }
      intros i. rewrite !covered_cons. specialize (Hcov i). tauto.
Qed.

(* a range away from ns and from every stored section stays away from the merged section *)
Lemma rm_far : forall l ns ns' k y, retain_merge ns l = (ns', k) ->
  wf ns -> (forall r, In r l -> wf r) -> wf y ->
  disj y ns -> (forall x, In x l -> disj y x) -> disj y ns'.
Proof.
  induction l as [|it r IH]; intros ns ns' k y E Hns Hl Hy D Dl; cbn [retain_merge] in E.
  - inversion E; subst. exact D.
  - assert (Hit : wf it) by (apply Hl; left; reflexivity).
    assert (Hr : forall x, In x r -> wf x) by (intros x Hx; apply Hl; right; exact Hx).
    pose proof (merge_spec ns it Hns Hit) as M.
    destruct (merge ns it) as [m|].
    + destruct M as [Hnd Hm].
      apply (IH m ns' k y E); auto.
      * subst m; unfold wf in *; cbn; lia.
      * assert (D2 : disj y it) by (apply Dl; left; reflexivity).
        subst m. unfold disj, wf in *. cbn [r_start r_end]. lia.
      * intros x Hx. apply Dl. right. exact Hx.
    + destruct (retain_merge ns r) as [ns0 k0] eqn:E0. inversion E; subst ns0 k. clear E.
      apply (IH ns ns' k0 y E0); auto. intros x Hx. apply Dl. right. exact Hx.
Qed.

Lemma rm_sep : forall l ns ns' k, retain_merge ns l = (ns', k) ->
  wf ns -> (forall r, In r l -> wf r) -> ForallOrdPairs disj l ->
  ForallOrdPairs disj k /\ (forall x, In x k -> disj x ns').
Proof.
  induction l as [|it r IH]; intros ns ns' k E Hns Hl F; cbn [retain_merge] in E.
  - inversion E; subst. split; [constructor|intros x []].
  - assert (Hit : wf it) by (apply Hl; left; reflexivity).
    assert (Hr : forall x, In x r -> wf x) by (intros x Hx; apply Hl; right; exact Hx).
    inversion F as [|a l' Fa Fr]; subst.
    pose proof (merge_spec ns it Hns Hit) as M.
    destruct (merge ns it) as [m|].
    + destruct M as [Hnd Hm]. apply (IH m ns' k E); auto.
      subst m; unfold wf in *; cbn; lia.
    + destruct (retain_merge ns r) as [ns0 k0] eqn:E0. inversion E; subst ns0 k. clear E.
      destruct (IH ns ns' k0 E0 Hns Hr Fr) as [Fk Dk].
      destruct (rm_basic r ns ns' k0 E0 Hns Hr) as (_ & Hin & _).
      rewrite Forall_forall in Fa.
      split.
      * constructor; [|exact Fk]. rewrite Forall_forall. intros x Hx. apply Fa, Hin, Hx.
      * intros x [Hx|Hx]; [|apply Dk; exact Hx]. subst x.
        apply (rm_far r ns ns' k0 it E0); auto. apply disj_sym. exact M.
Qed.

Lemma in_snoc {A} (x y : A) l : In x (l ++ [y]) <-> In x l \/ x = y.
Proof. rewrite in_app_iff. cbn [In]. intuition. Qed.

Lemma fop_snoc {A} (R : A -> A -> Prop) : forall l x,
  ForallOrdPairs R l -> (forall y, In y l -> R y x) -> ForallOrdPairs R (l ++ [x]).
Proof.
  induction l as [|a l IH]; intros x F H; cbn.
  - constructor; constructor.
  - inversion F as [|a' l' Fa Fl]; subst. constructor.
    + rewrite Forall_forall in *. intros y Hy. apply in_snoc in Hy. destruct Hy as [Hy|Hy].
      * apply Fa, Hy.
      * subst y. apply H. left. reflexivity.
    + apply IH; [exact Fl|]. intros y Hy. apply H. right. exact Hy.
Qed.

Lemma covered_dec l i : covered l i \/ ~ covered l i.
Proof.
  induction l as [|r l IH].
  - right. intros (x & [] & _).
  - destruct IH as [IH|IH].
    + left. destruct IH as (x & Hx & Hi). exists x. split; [right; exact Hx|exact Hi].
    + destruct (N.le_gt_cases (r_start r) i) as [H1|H1]; [destruct (N.lt_ge_cases i (r_end r)) as [H2|H2]|].
      * left. exists r. split; [left; reflexivity|split; assumption].
      * right. intros (x & [Hx|Hx] & Hi); [subst x; unfold inr in Hi; lia|apply IH; exists x; auto].
      * right. intros (x & [Hx|Hx] & Hi); [subst x; unfold inr in Hi; lia|apply IH; exists x; auto].
Qed.
(* ---------- add ---------- *)
Lemma land7 x : N.land x 7 = x mod 8.
Proof. change 7 with (N.ones 3). rewrite N.land_ones. reflexivity. Qed.

(* iter().map(|s| s.end).max(), 0 for no section *)
Definition top (l : list range) : N := match sec_max l with Some m => m | None => 0 end.

Lemma top_cons r l : top (r :: l) = N.max (r_end r) (top l).
Proof. unfold top. cbn [sec_max]. destruct (sec_max l); lia. Qed.

Lemma sec_max_top l : sec_max l = match l with [] => None | _ => Some (top l) end.
Proof. destruct l; reflexivity. Qed.

Lemma top_le l m : top l <= m <-> forall r, In r l -> r_end r <= m.
Proof.
  induction l as [|a l IH]; [cbn; split; [intros _ r []|lia]|]. rewrite top_cons. split.
  - intros H r [->|Hr]; [lia|]. apply IH; [lia|exact Hr].
  - intros H. pose proof (H a (or_introl eq_refl)).
    assert (top l <= m) by (apply IH; intros r Hr; apply H; right; exact Hr). lia.
Qed.

Lemma top_in l : l = [] \/ exists r, In r l /\ r_end r = top l.
Proof.
  induction l as [|a l IH]; [left; reflexivity|right]. rewrite top_cons.
  destruct (N.max_spec (r_end a) (top l)) as [[Hlt ->]|[_ ->]].
  - destruct IH as [->|(r & Hr & He)]; [cbn in Hlt; lia|]. exists r. split; [right; exact Hr|exact He].
  - exists a. split; [left; reflexivity|reflexivity].
Qed.

(* the largest section end is r's *)
Lemma top_eq l r : In r l -> (forall r', In r' l -> r_end r' <= r_end r) -> top l = r_end r.
Proof.
  intros Hr Hmax. apply N.le_antisymm; [apply top_le, Hmax|].
  exact (proj1 (top_le l (top l)) (N.le_refl _) r Hr).
Qed.

(* after merging, the largest section end is the new section's or an old one's *)
Lemma rm_top l ns ns' k : retain_merge ns l = (ns', k) -> wf ns -> (forall r, In r l -> wf r) ->
  top (k ++ [ns']) = N.max (r_end ns) (top l).
Proof.
  intros E W Wl. destruct (rm_basic _ _ _ _ E W Wl) as (_ & Hin & _ & He & Hab & Hmax & _).
  pose proof (proj1 (top_le l _) (N.le_refl _)) as Tl.
  pose proof (proj1 (top_le (k ++ [ns']) _) (N.le_refl _)) as Tk.
  assert (Hn : r_end ns' <= top (k ++ [ns'])) by (apply Tk, in_snoc; now right).
  apply N.le_antisymm.
  - apply top_le. intros r Hr. apply in_snoc in Hr. destruct Hr as [Hr| ->].
    + specialize (Tl r (Hin r Hr)). lia.
    + destruct Hmax as [Q|(x & Hx & Q)]; [lia|]. specialize (Tl x Hx). lia.
  - apply N.max_lub; [lia|]. apply top_le. intros x Hx.
    destruct (Hab x Hx) as [Hk|[_ Hk]]; [apply Tk, in_snoc; now left|lia].
Qed.

(* The verdict on f when the total length is e (if announced) and the data
   received so far ends at t: the same function in Model and Spec. *)
Definition check (e : option N) (t : N) (f : frag) : verdict :=
  if 65535 <? f_endp f then VTooBig (f_fo f) (len (f_data f))
  else if f_mf f && negb (len (f_data f) mod 8 =? 0) then VUnaligned (f_fo f) (len (f_data f))
  else match e with
       | Some E => if (E <? f_endp f) || negb (f_mf f) && negb (f_endp f =? E)
                   then VConflict E (f_endp f) else VOk
       | None => if negb (f_mf f) && (f_endp f <? t) then VConflict t (f_endp f) else VOk
       end.

Lemma check_ok_iff e t f : check e t f = VOk <->
  f_endp f <= 65535 /\
  (f_mf f = true -> len (f_data f) mod 8 = 0) /\
  (forall prev, e = Some prev -> f_endp f <= prev /\ (f_mf f = false -> f_endp f = prev)) /\
  (e = None -> f_mf f = false -> t <= f_endp f).
Proof.
  unfold check. destruct (N.ltb_spec 65535 (f_endp f)) as [H1|H1].
  { split; [discriminate|lia]. }
  destruct (f_mf f); cbn [andb negb orb].
  - destruct (N.eqb_spec (len (f_data f) mod 8) 0) as [H2|H2]; cbn [negb].
    2:{ split; [discriminate|]. intros (_ & A & _). now specialize (A eq_refl). }
    destruct e as [E|]; [rewrite orb_false_r; destruct (N.ltb_spec E (f_endp f))|].
    + split; [discriminate|]. intros (_ & _ & A & _). destruct (A E eq_refl). lia.
    + split; [intros _|reflexivity]. repeat split; try discriminate; auto; now inversion H0; subst.
    + split; [intros _|reflexivity]. repeat split; try discriminate; auto.
  - destruct e as [E|].
    + destruct (N.ltb_spec E (f_endp f)); cbn [orb]; [|destruct (N.eqb_spec (f_endp f) E); cbn [negb]].
      * split; [discriminate|]. intros (_ & _ & A & _). destruct (A E eq_refl). lia.
      * split; [intros _|reflexivity]. repeat split; try discriminate; auto; inversion H0; subst; lia.
      * split; [discriminate|]. intros (_ & _ & A & _). destruct (A E eq_refl) as [_ A']. now specialize (A' eq_refl).
    + destruct (N.ltb_spec (f_endp f) t).
      * split; [discriminate|]. intros (_ & _ & _ & A). specialize (A eq_refl eq_refl). lia.
      * split; [intros _|reflexivity]. repeat split; try discriminate; auto.
Qed.

Lemma check_not_panic e t f : check e t f <> VPanic.
Proof.
  unfold check. destruct (65535 <? f_endp f); [discriminate|].
  destruct (f_mf f && negb (len (f_data f) mod 8 =? 0)); [discriminate|].
  destruct e as [E|]; [destruct ((E <? f_endp f) || negb (f_mf f) && negb (f_endp f =? E))
                      |destruct (negb (f_mf f) && (f_endp f <? t))]; discriminate.
Qed.

(* t is consulted only while the total length is unknown *)
Lemma check_ext e t t' f : (e = None -> t = t') -> check e t f = check e t' f.
Proof. intros H. destruct e; [reflexivity|]. now rewrite (H eq_refl). Qed.

Definition written (b : buf) (f : frag) : list (option byte) :=
  write (grow (b_data b) (f_endp f)) (f_off f) (f_data f).

Definition add_result (b : buf) (f : frag) (ns : range) (kept : list range) : buf :=
  mkBuf (b_ipn b)
        (if f_mf f then written b f else take (f_endp f) (written b f))
        (kept ++ [ns])
        (if f_mf f then b_end b else Some (f_endp f)).

(* the buffer after an accepted fragment *)
Definition added (b : buf) (f : frag) : buf :=
  let '(ns, kept) := retain_merge (mkRange (f_off f) (f_endp f)) (b_sections b) in
  add_result b f ns kept.

Definition accepts (b : buf) (f : frag) : Prop :=
  f_endp f <= 65535 /\
  (f_mf f = true -> len (f_data f) mod 8 = 0) /\
  (forall prev, b_end b = Some prev -> f_endp f <= prev /\ (f_mf f = false -> f_endp f = prev)) /\
  (b_end b = None -> f_mf f = false -> forall r, In r (b_sections b) -> r_end r <= f_endp f).

Lemma check_accepts b f : check (b_end b) (top (b_sections b)) f = VOk <-> accepts b f.
Proof.
  rewrite check_ok_iff. unfold accepts. rewrite top_le. tauto.
Qed.

Lemma len_written b f : len (written b f) = N.max (len (b_data b)) (f_endp f).
Proof.
  unfold written. rewrite len_write; [apply len_grow|]. rewrite len_grow. unfold f_endp. lia.
Qed.

(* once the verdict is VOk neither slice operation is out of range *)
Lemma add_tail b f :
  (if len (grow (b_data b) (f_endp f)) <? f_endp f then AddPanic
   else let '(ns, kept) := retain_merge (mkRange (f_off f) (f_endp f)) (b_sections b) in
        if f_mf f
        then AddOk (mkBuf (b_ipn b) (write (grow (b_data b) (f_endp f)) (f_off f) (f_data f))
                          (kept ++ [ns]) (b_end b))
        else if len (write (grow (b_data b) (f_endp f)) (f_off f) (f_data f)) <? f_endp f
             then AddPanic
             else AddOk (mkBuf (b_ipn b)
                               (take (f_endp f) (write (grow (b_data b) (f_endp f)) (f_off f) (f_data f)))
                               (kept ++ [ns]) (Some (f_endp f))))
  = AddOk (added b f).
Proof.
  pose proof (len_written b f) as LW. unfold written in LW.
  rewrite (proj2 (N.ltb_ge _ _)) by (rewrite len_grow; lia).
  unfold added, add_result, written.
  destruct (retain_merge (mkRange (f_off f) (f_endp f)) (b_sections b)) as [ns kept].
  destruct (f_mf f); [reflexivity|]. now rewrite (proj2 (N.ltb_ge _ _)) by lia.
Qed.

Lemma add_check b f :
  add b f = match check (b_end b) (top (b_sections b)) f with
            | VOk => AddOk (added b f)
            | v => AddErr v
            end.
Proof.
  unfold add, check. cbv zeta. fold (f_off f). fold (f_endp f). rewrite land7, add_tail.
  destruct (N.ltb_spec 65535 (len (f_data f))) as [H0|H0].
  { now rewrite (proj2 (N.ltb_lt 65535 (f_endp f))) by (unfold f_endp; lia). }
  destruct (65535 <? f_endp f); [reflexivity|].
  destruct (f_mf f && negb (len (f_data f) mod 8 =? 0)); [reflexivity|].
  destruct (b_end b) as [E|].
  - now destruct ((E <? f_endp f) || negb (f_mf f) && negb (f_endp f =? E)).
  - rewrite sec_max_top. destruct (f_mf f); cbn [negb andb]; [reflexivity|].
    destruct (b_sections b) as [|r l]; [|now destruct (f_endp f <? top (r :: l))].
    now rewrite (proj2 (N.ltb_ge _ (top []))) by (cbn; lia).
Qed.

Lemma add_accepts b f : accepts b f -> add b f = AddOk (added b f).
Proof. intros A. rewrite add_check, (proj2 (check_accepts b f) A). reflexivity. Qed.

Lemma add_ok_inv b f b' : add b f = AddOk b' -> accepts b f /\ b' = added b f.
Proof.
  rewrite add_check, <- check_accepts.
  destruct (check (b_end b) (top (b_sections b)) f); try discriminate.
  intros [= <-]. split; reflexivity.
Qed.

Lemma add_err_inv b f v : add b f = AddErr v -> v = check (b_end b) (top (b_sections b)) f /\ v <> VOk.
Proof.
  rewrite add_check.
  destruct (check (b_end b) (top (b_sections b)) f); try discriminate; intros [= <-]; split;
    try reflexivity; discriminate.
Qed.

Lemma add_never_panics b f : add b f <> AddPanic.
Proof. rewrite add_check. destruct (check (b_end b) (top (b_sections b)) f); discriminate. Qed.
(* ---------- the invariant ---------- *)
Record Inv (b : buf) : Prop := mkInv {
  inv_wf : forall r, In r (b_sections b) -> wf r;
  inv_sep : ForallOrdPairs disj (b_sections b);
  inv_some : forall i, i < len (b_data b) -> covered (b_sections b) i ->
             exists v, dget (b_data b) i = Some (Some v);
  inv_none : forall i, i < len (b_data b) -> ~ covered (b_sections b) i ->
             dget (b_data b) i = Some None;
  (* every section ends within data; data is empty or ends where the last section
     ends; once the total length is known, data has exactly that length *)
  inv_len : (forall r, In r (b_sections b) -> r_end r <= len (b_data b)) /\
            (len (b_data b) = 0 \/ exists r, In r (b_sections b) /\ r_end r = len (b_data b)) /\
            (forall E, b_end b = Some E ->
               len (b_data b) = E /\ exists r, In r (b_sections b) /\ r_end r = E);
  inv_max : len (b_data b) <= 65535 /\ forall r, In r (b_sections b) -> r_end r <= 65535
}.

Lemma Inv_new ipn d s : Inv (buf_new ipn d s).
Proof.
  constructor; cbn.
  - intros r [].
  - constructor.
  - intros i H. try rewrite len_nil in H; lia.
  - intros i H. try rewrite len_nil in H; lia.
  - split; [intros r []|]. split; [left; reflexivity|]. intros E HE. discriminate.
  - split; [try rewrite len_nil; lia|intros r []].
Qed.

Lemma Inv_len_top b : Inv b -> len (b_data b) = top (b_sections b).
Proof.
  intros I. destruct (inv_len b I) as (L1 & L2 & _). apply N.le_antisymm; [|apply top_le, L1].
  destruct L2 as [L2|(r & Hr & L2)]; [lia|]. rewrite <- L2.
  exact (proj1 (top_le _ _) (N.le_refl _) r Hr).
Qed.

Lemma Inv_end_len b E : Inv b -> b_end b = Some E -> len (b_data b) = E.
Proof. intros I HE. exact (proj1 (proj2 (proj2 (inv_len b I)) E HE)). Qed.

(* an accepted final fragment never shortens the data *)
Lemma final_ge_len b f : Inv b -> accepts b f -> f_mf f = false -> len (b_data b) <= f_endp f.
Proof.
  intros I (_ & _ & A3 & A4) Hm. destruct (b_end b) as [E0|] eqn:Ee.
  - rewrite (Inv_end_len b E0 I Ee). destruct (A3 E0 eq_refl) as [_ Q]. rewrite (Q Hm). lia.
  - rewrite (Inv_len_top b I). apply top_le, A4; auto.
Qed.

Lemma dget_written b f i :
  dget (written b f) i =
    if (f_off f <=? i) && (i <? f_endp f) then option_map Some (rd (f_data f) (i - f_off f))
    else if i <? len (b_data b) then dget (b_data b) i
    else if i <? f_endp f then Some None else None.
Proof.
  unfold written. rewrite dget_write.
  - unfold f_endp at 2. fold (f_endp f). rewrite dget_grow. reflexivity.
  - rewrite len_grow. unfold f_endp. lia.
Qed.

Lemma covered_snoc l x i : covered (l ++ [x]) i <-> inr x i \/ covered l i.
Proof.
  unfold covered. split.
  - intros (r & Hr & Hi). apply in_snoc in Hr. destruct Hr as [Hr|Hr].
    + right. exists r. auto.
    + subst r. left. exact Hi.
  - intros [Hi|(r & Hr & Hi)].
    + exists x. split; [apply in_snoc; right; reflexivity|exact Hi].
    + exists r. split; [apply in_snoc; left; exact Hr|exact Hi].
Qed.

Lemma written_inv b f ns kept : Inv b -> accepts b f ->
  retain_merge (mkRange (f_off f) (f_endp f)) (b_sections b) = (ns, kept) ->
  (forall i, i < len (written b f) -> covered (kept ++ [ns]) i ->
     exists v, dget (written b f) i = Some (Some v)) /\
  (forall i, i < len (written b f) -> ~ covered (kept ++ [ns]) i ->
     dget (written b f) i = Some None).
Proof.
  intros I (A1 & A2 & A3 & A4) E.
  assert (Hw0 : wf (mkRange (f_off f) (f_endp f))) by (unfold wf, f_endp; cbn; lia).
  destruct (rm_basic _ _ _ _ E Hw0 (inv_wf b I)) as (W & Hin & Hs & He & Hab & Hmax & Hcov).
  assert (Hlen : forall i, i < len (written b f) -> covered (b_sections b) i -> i < len (b_data b)).
  { intros i Hi (r & Hr & Hri).
    pose proof (inv_len b I) as (L & _). specialize (L r Hr). unfold inr in Hri. lia. }
  assert (Hc : forall i, covered (kept ++ [ns]) i <-> (f_off f <= i < f_endp f) \/ covered (b_sections b) i).
  { intros i. rewrite covered_snoc. rewrite Hcov. unfold inr. cbn [r_start r_end]. tauto. }
  split.
  - intros i Hi Hcv. rewrite dget_written. apply Hc in Hcv.
    destruct (N.leb_spec (f_off f) i) as [H1|H1]; destruct (N.ltb_spec i (f_endp f)) as [H2|H2]; cbn [andb].
    + destruct (rd_lt_Some (f_data f) (i - f_off f)) as [v Hv]; [unfold f_endp in H2; lia|].
      exists v. rewrite Hv. reflexivity.
    + destruct Hcv as [Hcv|Hcv]; [lia|]. pose proof (Hlen i Hi Hcv) as Q.
      destruct (N.ltb_spec i (len (b_data b))); [|lia]. apply (inv_some b I); assumption.
    + destruct Hcv as [Hcv|Hcv]; [lia|]. pose proof (Hlen i Hi Hcv) as Q.
      destruct (N.ltb_spec i (len (b_data b))); [|lia]. apply (inv_some b I); assumption.
    + destruct Hcv as [Hcv|Hcv]; [lia|]. pose proof (Hlen i Hi Hcv) as Q.
      destruct (N.ltb_spec i (len (b_data b))); [|lia]. apply (inv_some b I); assumption.
  - intros i Hi Hcv. rewrite dget_written. rewrite Hc in Hcv. rewrite len_written in Hi.
    destruct (N.leb_spec (f_off f) i) as [H1|H1]; destruct (N.ltb_spec i (f_endp f)) as [H2|H2]; cbn [andb];
      try (exfalso; apply Hcv; left; lia);
      (destruct (N.ltb_spec i (len (b_data b))); [apply (inv_none b I); [assumption|tauto]|]);
      try reflexivity; lia.
Qed.

(* the length clause of Inv, from "the data ends where the last section ends" *)
Lemma inv_len_intro d (l : list range) (e : option N) :
  l <> [] -> d = top l -> (forall E, e = Some E -> d = E) ->
  (forall r, In r l -> r_end r <= d) /\
  (d = 0 \/ exists r, In r l /\ r_end r = d) /\
  (forall E, e = Some E -> d = E /\ exists r, In r l /\ r_end r = E).
Proof.
  intros Hne -> He. destruct (top_in l) as [->|Hin]; [contradiction|].
  split; [apply top_le, N.le_refl|]. split; [right; exact Hin|].
  intros E HE. rewrite <- (He E HE). split; [reflexivity|exact Hin].
Qed.

Lemma add_preserves_Inv b f b' : Inv b -> add b f = AddOk b' -> Inv b'.
Proof.
  intros I Hadd. apply add_ok_inv in Hadd as [Acc ->]. unfold added.
  destruct (retain_merge (mkRange (f_off f) (f_endp f)) (b_sections b)) as [ns kept] eqn:E.
  destruct (written_inv b f ns kept I Acc E) as [WS WN].
  pose proof (final_ge_len b f I Acc) as Hfin. destruct Acc as (A1 & A2 & A3 & A4).
  assert (Hw0 : wf (mkRange (f_off f) (f_endp f))) by (unfold wf, f_endp; cbn; lia).
  destruct (rm_basic _ _ _ _ E Hw0 (inv_wf b I)) as (W & Hin & _).
  destruct (rm_sep _ _ _ _ E Hw0 (inv_wf b I) (inv_sep b I)) as [Fk Dk].
  pose proof (rm_top _ _ _ _ E Hw0 (inv_wf b I)) as Htop. cbn [r_end] in Htop.
  rewrite <- (Inv_len_top b I) in Htop.
  pose proof (len_written b f) as LW. pose proof (inv_max b I) as [M1 _].
  assert (Hdlen : len (if f_mf f then written b f else take (f_endp f) (written b f))
                  = top (kept ++ [ns])).
  { rewrite Htop. destruct (f_mf f) eqn:Em; [lia|]. rewrite len_take, LW. specialize (Hfin eq_refl). lia. }
  constructor; unfold add_result; cbn [b_sections b_data b_end b_ipn].
  - intros r Hr. apply in_snoc in Hr. destruct Hr as [Hr|Hr].
    + apply (inv_wf b I), Hin, Hr.
    + subst r. exact W.
  - apply fop_snoc; assumption.
  - destruct (f_mf f); [exact WS|].
    intros i Hi Hc. rewrite len_take in Hi. rewrite dget_take.
    destruct (N.ltb_spec i (f_endp f)); [|lia]. apply WS; [lia|exact Hc].
  - destruct (f_mf f); [exact WN|].
    intros i Hi Hc. rewrite len_take in Hi. rewrite dget_take.
    destruct (N.ltb_spec i (f_endp f)); [|lia]. apply WN; [lia|exact Hc].
  - apply inv_len_intro; [now destruct kept|exact Hdlen|]. rewrite Hdlen, Htop.
    intros E0 HE. destruct (f_mf f) eqn:Em.
    + rewrite (Inv_end_len b E0 I HE). destruct (A3 E0 HE). lia.
    + injection HE as <-. specialize (Hfin eq_refl). lia.
  - rewrite Hdlen. split; [|apply top_le]; rewrite Htop; lia.
Qed.

Lemma model_step_Inv b f : Inv b -> Inv (snd (model_step b f)).
Proof.
  intros I. unfold model_step. destruct (add b f) eqn:E; cbn [snd]; try exact I.
  eapply add_preserves_Inv; eauto.
Qed.

Lemma model_run_Inv : forall h b, Inv b -> Inv (model_run b h).
Proof.
  unfold model_run. induction h as [|f h IH]; intros b I; cbn [fold_left]; [exact I|].
  apply IH, model_step_Inv, I.
Qed.

Lemma is_complete_iff b : is_complete b = true <->
  exists E r, b_end b = Some E /\ b_sections b = [r] /\ r_start r = 0.
Proof.
  unfold is_complete. destruct (b_end b) as [E|].
  2:{ split; [discriminate|]. now intros (E & r & H & _). }
  destruct (b_sections b) as [|r [|r2 t]]; try rewrite N.eqb_eq;
    (split; [try discriminate|intros (E' & r' & _ & [= <-] & H0); exact H0]).
  intros H0. now exists E, r.
Qed.

(* a completed buffer: one section, the whole of the data *)
Lemma complete_inv b : Inv b -> is_complete b = true ->
  exists E, b_end b = Some E /\ len (b_data b) = E /\ b_sections b = [mkRange 0 E].
Proof.
  intros I C. apply is_complete_iff in C. destruct C as (E & [s e] & HE & Hs & H0). cbn in H0. subst s.
  pose proof (Inv_len_top b I) as T. rewrite Hs, (Inv_end_len b E I HE) in T. cbn in T. subst e.
  exists E. split; [exact HE|]. split; [exact (Inv_end_len b E I HE)|exact Hs].
Qed.

Lemma covered_single E i : i < E -> covered [mkRange 0 E] i.
Proof. intros Hi. exists (mkRange 0 E). split; [left; reflexivity|]. unfold inr. cbn. lia. Qed.

(* a completed buffer has no unwritten byte *)
Lemma complete_no_None b : Inv b -> is_complete b = true ->
  forall i, i < len (b_data b) -> exists v, dget (b_data b) i = Some (Some v).
Proof.
  intros I C i Hi. destruct (complete_inv b I C) as (E & _ & L & Hs).
  apply (inv_some b I); [exact Hi|]. rewrite Hs. apply covered_single. lia.
Qed.

(* separated sections that cover [0, E) and end at E are the one section [0, E) *)
Lemma sep_cover_single l E r0 :
  (forall r, In r l -> wf r) -> ForallOrdPairs disj l -> (forall r, In r l -> r_end r <= E) ->
  In r0 l -> r_end r0 = E -> (forall i, i < E -> covered l i) ->
  l = [r0] /\ r_start r0 = 0.
Proof.
  intros Hwf Hsep Hle Hr0 He Hcov. pose proof (Hwf r0 Hr0) as W0. unfold wf in W0.
  assert (Hdiff : forall r, In r l -> r = r0 \/ disj r r0).
  { intros r Hr. destruct (ForallOrdPairs_In Hsep r r0 Hr Hr0) as [Q|[Q|Q]]; auto using disj_sym. }
  assert (H0 : r_start r0 = 0).
  { destruct (N.eq_dec (r_start r0) 0) as [Q|Q]; [exact Q|]. exfalso.
    destruct (Hcov (r_start r0 - 1)) as (r1 & Hr1 & Hi1); [lia|]. unfold inr in Hi1.
    destruct (Hdiff r1 Hr1) as [->|Q1]; [lia|]. unfold disj in Q1. lia. }
  assert (Hall : forall r, In r l -> r = r0).
  { intros r Hr. destruct (Hdiff r Hr) as [Q|Q]; [exact Q|]. exfalso.
    pose proof (Hwf r Hr). pose proof (Hle r Hr). unfold disj, wf in *. lia. }
  split; [|exact H0]. destruct l as [|a [|a2 t]]; [destruct Hr0| |].
  - now rewrite (Hall a (or_introl eq_refl)).
  - exfalso. inversion Hsep as [|x l' Fa _]; subst. inversion Fa as [|y l'' Fd _]; subst.
    rewrite (Hall a (or_introl eq_refl)), (Hall a2 (or_intror (or_introl eq_refl))) in Fd.
    unfold disj in Fd. lia.
Qed.
(* ---------- the model refines the specification ---------- *)
Record Rel (b : buf) (st : rstate) : Prop := mkRel {
  rel_inv : Inv b;
  rel_end : b_end b = s_end st;
  rel_data : forall i, i < len (b_data b) -> dget (b_data b) i = Some (lookup (s_frags st) i);
  rel_hi : hi (s_frags st) <= len (b_data b);
  rel_len : b_end b = None -> len (b_data b) = hi (s_frags st)
}.

Lemma lookup_lt_hi : forall fs i v, lookup fs i = Some v -> i < hi fs.
Proof.
  induction fs as [|[o d] fs IH]; intros i v H; cbn [lookup hi] in *; [discriminate|].
  unfold covers in H.
  destruct (N.leb_spec o i); destruct (N.ltb_spec i (o + len d)); cbn [andb] in H;
    try (specialize (IH i v H)); lia.
Qed.

Lemma lookup_ge_hi fs i : hi fs <= i -> lookup fs i = None.
Proof.
  intros H. destruct (lookup fs i) eqn:E; [|reflexivity]. apply lookup_lt_hi in E. lia.
Qed.

Lemma Rel_new ipn d s : Rel (buf_new ipn d s) spec_new.
Proof.
  constructor.
  - apply Inv_new.
  - reflexivity.
  - cbn. intros i H. lia.
  - cbn. lia.
  - reflexivity.
Qed.

Definition push (st : rstate) (f : frag) (e : option N) : rstate :=
  mkR ((f_off f, f_data f) :: s_frags st) e.

Lemma spec_add_check st f :
  spec_add st f =
  let v := check (s_end st) (hi (s_frags st)) f in
  (v, match v with
      | VOk => push st f (if f_mf f then s_end st else Some (f_endp f))
      | _ => st
      end).
Proof.
  unfold spec_add, check, push, MAX_DEFRAG_LEN. cbv zeta.
  destruct (65535 <? f_endp f); [reflexivity|].
  destruct (f_mf f); cbn [andb negb].
  - destruct (negb (len (f_data f) mod 8 =? 0)); [reflexivity|].
    destruct (s_end st) as [E|]; [|reflexivity].
    rewrite orb_false_r. now destruct (E <? f_endp f).
  - destruct (s_end st) as [E|]; [|now destruct (f_endp f <? hi (s_frags st))].
    destruct (E <? f_endp f); cbn [orb]; [reflexivity|].
    now destruct (N.eqb_spec (f_endp f) E) as [->|].
Qed.

Lemma Rel_push b st f : Rel b st -> accepts b f ->
  Rel (added b f) (push st f (if f_mf f then s_end st else Some (f_endp f))).
Proof.
  intros R Acc. pose proof (rel_inv _ _ R) as I.
  assert (I' : Inv (added b f)) by (apply (add_preserves_Inv b f _ I), add_accepts, Acc).
  pose proof (final_ge_len b f I Acc) as Hfin. revert I'. unfold added.
  destruct (retain_merge (mkRange (f_off f) (f_endp f)) (b_sections b)) as [ns kept]. intros I'.
  pose proof (len_written b f) as LW.
  pose proof (rel_hi _ _ R) as RH. pose proof (rel_end _ _ R) as RE.
  assert (Hlen' : len (b_data (add_result b f ns kept)) = len (written b f)).
  { unfold add_result; cbn [b_data]. destruct (f_mf f) eqn:Em; [reflexivity|].
    rewrite len_take. specialize (Hfin eq_refl). lia. }
  constructor.
  - exact I'.
  - unfold add_result, push; cbn [b_end s_end]. destruct (f_mf f); [exact RE|reflexivity].
  - intros i Hi. rewrite Hlen' in Hi.
    assert (Hd : dget (b_data (add_result b f ns kept)) i = dget (written b f) i).
    { unfold add_result; cbn [b_data]. destruct (f_mf f) eqn:Em; [reflexivity|].
      rewrite dget_take. specialize (Hfin eq_refl).
      destruct (N.ltb_spec i (f_endp f)); [reflexivity|lia]. }
    rewrite Hd, dget_written. unfold push; cbn [s_frags lookup]. unfold covers.
    fold (f_endp f).
    destruct ((f_off f <=? i) && (i <? f_endp f)) eqn:Ec.
    + apply andb_true_iff in Ec. destruct Ec as [Ec1 Ec2]. apply N.leb_le in Ec1. apply N.ltb_lt in Ec2.
      destruct (rd_lt_Some (f_data f) (i - f_off f)) as [v Hv]; [unfold f_endp in Ec2; lia|].
      rewrite Hv. reflexivity.
    + destruct (N.ltb_spec i (len (b_data b))) as [C|C].
      * apply (rel_data _ _ R). exact C.
      * rewrite lookup_ge_hi by lia. rewrite LW in Hi.
        destruct (N.ltb_spec i (f_endp f)); [reflexivity|lia].
  - rewrite Hlen', LW. unfold push; cbn [s_frags hi]. fold (f_endp f). lia.
  - intros Hn. rewrite Hlen', LW. unfold push; cbn [s_frags hi]. fold (f_endp f).
    unfold add_result in Hn; cbn [b_end] in Hn. destruct (f_mf f); [|discriminate].
    rewrite (rel_len _ _ R Hn). lia.
Qed.

(* one delivery: same verdict, related states *)
Lemma sim_step b st f : Rel b st ->
  fst (model_step b f) = fst (spec_add st f) /\
  Rel (snd (model_step b f)) (snd (spec_add st f)).
Proof.
  intros R. unfold model_step. rewrite add_check, spec_add_check. cbv zeta.
  rewrite <- (rel_end _ _ R).
  rewrite (check_ext _ (hi (s_frags st)) (top (b_sections b)))
    by (intros Ee; rewrite <- (rel_len _ _ R Ee); apply Inv_len_top, R).
  destruct (check (b_end b) (top (b_sections b)) f) eqn:Ec; cbn [fst snd]; auto.
  split; [reflexivity|]. rewrite (rel_end _ _ R). apply Rel_push; [exact R|]. apply check_accepts, Ec.
Qed.
(* ---------- completeness and payload ---------- *)
Lemma nth_nseq_from : forall k s m,
  nth_error (nseq_from s k) m = if (m <? k)%nat then Some (s + N.of_nat m) else None.
Proof.
  induction k as [|k IH]; intros s m; cbn [nseq_from].
  - destruct m; reflexivity.
  - destruct m as [|m]; cbn [nth_error].
    + replace (s + N.of_nat 0) with s by (cbn; lia). reflexivity.
    + rewrite IH. change (S m <? S k)%nat with (m <? k)%nat.
      destruct (m <? k)%nat; [f_equal; lia|reflexivity].
Qed.

Lemma dget_nseq n i : dget (nseq n) i = if i <? n then Some i else None.
Proof.
  unfold dget, nseq. rewrite nth_nseq_from.
  destruct (Nat.ltb_spec (N.to_nat i) (N.to_nat n)); destruct (N.ltb_spec i n); try lia; [f_equal; lia|reflexivity].
Qed.

Lemma in_nseq n i : In i (nseq n) <-> i < n.
Proof.
  split.
  - intros H. apply In_nth_error in H. destruct H as [m Hm].
    unfold nseq in Hm. rewrite nth_nseq_from in Hm.
    destruct (Nat.ltb_spec m (N.to_nat n)); [|discriminate]. inversion Hm. lia.
  - intros H. apply (nth_error_In _ (N.to_nat i)). fold (dget (nseq n) i). rewrite dget_nseq.
    destruct (N.ltb_spec i n); [reflexivity|lia].
Qed.

Lemma len_nseq n : len (nseq n) = n.
Proof.
  unfold len, nseq. assert (H : forall k s, length (nseq_from s k) = k).
  { induction k; intros s; cbn; [reflexivity|]. f_equal. apply IHk. }
  rewrite H. lia.
Qed.

Lemma spec_complete_iff st : spec_complete st = true <->
  exists E, s_end st = Some E /\ forall i, i < E -> exists v, lookup (s_frags st) i = Some v.
Proof.
  unfold spec_complete. destruct (s_end st) as [E|].
  - rewrite forallb_forall. split.
    + intros H. exists E. split; [reflexivity|]. intros i Hi. apply in_nseq in Hi. specialize (H i Hi).
      destruct (lookup (s_frags st) i); [eauto|discriminate].
    + intros (E' & HE & H) i Hi. inversion HE; subst E'. apply in_nseq in Hi.
      destruct (H i Hi) as [v Hv]. rewrite Hv. reflexivity.
  - split; [discriminate|]. intros (E & HE & _). discriminate.
Qed.

Lemma complete_agree b st : Rel b st -> is_complete b = spec_complete st.
Proof.
  intros R. pose proof (rel_inv _ _ R) as I. pose proof (rel_end _ _ R) as RE.
  apply Bool.eq_true_iff_eq. rewrite spec_complete_iff. split.
  - intros C. destruct (complete_inv b I C) as (E & HE & L & Hs). exists E. split; [congruence|].
    intros i Hi. destruct (inv_some b I i) as [v Hv]; [lia|rewrite Hs; now apply covered_single|].
    exists v. rewrite (rel_data _ _ R) in Hv by lia. congruence.
  - intros (E & HE & Hall). rewrite <- RE in HE.
    destruct (proj2 (proj2 (inv_len b I)) E HE) as [L (r0 & Hr0 & Hr0e)].
    destruct (sep_cover_single (b_sections b) E r0) as [Hs H0]; try assumption.
    + apply I.
    + apply I.
    + rewrite <- L. apply (inv_len b I).
    + (* an offset that is looked up was written, hence lies in a section *)
      intros i Hi. destruct (Hall i Hi) as [v Hv].
      destruct (covered_dec (b_sections b) i) as [C|C]; [exact C|]. exfalso.
      assert (Hl : i < len (b_data b)) by lia. pose proof (rel_data _ _ R i Hl) as Hd.
      rewrite (inv_none b I i Hl C), Hv in Hd. discriminate.
    + apply is_complete_iff. now exists E, r0.
Qed.

Lemma payload_agree b st : Rel b st -> is_complete b = true -> b_data b = spec_payload st.
Proof.
  intros R C. destruct (complete_inv b (rel_inv _ _ R) C) as (E & HE & L & _).
  unfold spec_payload. rewrite <- (rel_end _ _ R), HE.
  apply dget_ext. intros i. rewrite dget_map, dget_nseq.
  destruct (N.ltb_spec i E) as [H|H]; cbn [option_map].
  - apply (rel_data _ _ R). lia.
  - apply dget_ge. lia.
Qed.

Lemma obs_agree v b st : Rel b st -> model_obs v b = spec_obs v st.
Proof.
  intros R. unfold model_obs, spec_obs. rewrite <- (complete_agree b st R).
  destruct (is_complete b) eqn:C; [|reflexivity]. rewrite (payload_agree b st R C). reflexivity.
Qed.

Lemma refines_gen : forall h b st, Rel b st ->
  model_trace b h = spec_trace st h /\ Rel (model_run b h) (spec_run st h).
Proof.
  induction h as [|f h IH]; intros b st R.
  - split; [reflexivity|exact R].
  - cbn [model_trace spec_trace] in *. unfold model_run, spec_run. cbn [fold_left].
    pose proof (sim_step b st f R) as S.
    destruct (model_step b f) as [v b'] eqn:Em. destruct (spec_add st f) as [sv st'] eqn:Es.
    cbn [fst snd] in *. destruct S as [Hv R']. subst sv.
    destruct (IH b' st' R') as [Ht Hr].
    split; [|exact Hr]. rewrite (obs_agree v b' st' R'), Ht. reflexivity.
Qed.

Lemma refines h ipn d s :
  model_trace (buf_new ipn d s) h = spec_trace spec_new h.
Proof. apply (refines_gen h (buf_new ipn d s) spec_new (Rel_new ipn d s)). Qed.

(* ---------- what the Spec stores ---------- *)
Lemma covers_iff o d i : covers o d i = true <-> o <= i < o + len d.
Proof. unfold covers. rewrite andb_true_iff, N.leb_le, N.ltb_lt. tauto. Qed.

Lemma lookup_covers : forall fs i v, lookup fs i = Some v ->
  exists o d, In (o, d) fs /\ covers o d i = true /\ rd d (i - o) = Some v.
Proof.
  induction fs as [|[o d] fs IH]; intros i v H; cbn [lookup] in H; [discriminate|].
  destruct (covers o d i) eqn:C.
  - exists o, d. split; [left; reflexivity|auto].
  - destruct (IH i v H) as (o' & d' & Hin & Hc & Hr). exists o', d'. split; [right; exact Hin|auto].
Qed.

Lemma covers_lookup : forall fs o d i, In (o, d) fs -> covers o d i = true -> exists v, lookup fs i = Some v.
Proof.
  induction fs as [|[o' d'] fs IH]; intros o d i Hin Hc; [destruct Hin|]. cbn [lookup].
  destruct (covers o' d' i) eqn:C.
  - apply covers_iff in C. apply rd_lt_Some. lia.
  - destruct Hin as [Hin|Hin]; [inversion Hin; subst; congruence|]. eapply IH; eauto.
Qed.

Lemma rd_slice (P d : bytes) o n j : d = take n (drop o P) -> j < n -> rd d j = rd P (o + j).
Proof.
  intros Hd Hj. subst d. rewrite !rd_dget, dget_take, dget_drop.
  destruct (N.ltb_spec j n); [reflexivity|lia].
Qed.

(* ---------- order independence of the verdict ---------- *)
Definition okobs (o : obs) : Prop := fst (fst o) = VOk.

(* the Spec state after the accepted fragments hs *)
Record JInv (hs : list frag) (st : rstate) : Prop := mkJ {
  j_hi_ge : forall g, In g hs -> f_endp g <= hi (s_frags st);
  j_hi_in : hi (s_frags st) = 0 \/ exists g, In g hs /\ f_endp g = hi (s_frags st);
  j_end : match s_end st with
          | Some E => hi (s_frags st) <= E /\ exists g, In g hs /\ f_mf g = false /\ f_endp g = E
          | None => forall g, In g hs -> f_mf g = true
          end;
  j_frags : forall o d, In (o, d) (s_frags st) <-> exists g, In g hs /\ o = f_off g /\ d = f_data g
}.

Lemma JInv_new : JInv [] spec_new.
Proof.
  constructor; cbn.
  - intros g [].
  - left. reflexivity.
  - intros g [].
  - intros o d. split; [intros []|intros (g & [] & _)].
Qed.

Lemma consistent_nil : consistent [].
Proof. split; [constructor|intros f g []]. Qed.

Lemma consistent_incl l l' : consistent l -> (forall x, In x l' -> In x l) -> consistent l'.
Proof.
  intros [F H] Hin. split.
  - rewrite Forall_forall in *. intros x Hx. apply F, Hin, Hx.
  - intros f g Hf Hg. apply H; apply Hin; assumption.
Qed.

Lemma consistent_snoc hs f : consistent (hs ++ [f]) <->
  consistent hs /\ frag_wf f /\
  (forall g, In g hs -> f_mf g = false -> f_endp f <= f_endp g) /\
  (f_mf f = false -> forall g, In g hs -> f_endp g <= f_endp f).
Proof.
  unfold consistent. rewrite Forall_app. split.
  - intros [[F1 F2] H]. inversion F2 as [|x l Wf _]; subst.
    assert (Hf : In f (hs ++ [f])) by (apply in_snoc; right; reflexivity).
    split; [split; [exact F1|]|split; [exact Wf|split]].
    + intros a b Ha Hb. apply H; apply in_snoc; left; assumption.
    + intros g Hg Hm. apply (H g f); [apply in_snoc; left; exact Hg|exact Hf|exact Hm].
    + intros Hm g Hg. apply (H f g); [exact Hf|apply in_snoc; left; exact Hg|exact Hm].
  - intros ([F1 H1] & Wf & H2 & H3). split; [split; [exact F1|constructor; [exact Wf|constructor]]|].
    intros a b Ha Hb Hm. apply in_app_or in Ha. apply in_app_or in Hb.
    destruct Ha as [Ha|[Ha|[]]]; destruct Hb as [Hb|[Hb|[]]]; subst.
    + apply H1; assumption.
    + apply H2; assumption.
    + apply H3; assumption.
    + lia.
Qed.

Lemma JInv_push hs st f e' : JInv hs st ->
  match e' with
  | Some E => N.max (f_endp f) (hi (s_frags st)) <= E /\
              exists g, In g (hs ++ [f]) /\ f_mf g = false /\ f_endp g = E
  | None => forall g, In g (hs ++ [f]) -> f_mf g = true
  end ->
  JInv (hs ++ [f]) (mkR ((f_off f, f_data f) :: s_frags st) e').
Proof.
  intros J He.
  pose proof (j_hi_ge _ _ J) as J1. pose proof (j_hi_in _ _ J) as J2.
  assert (Hf : In f (hs ++ [f])) by (apply in_snoc; right; reflexivity).
  constructor; cbn [s_frags s_end hi]; fold (f_endp f).
  - intros g Hg. apply in_snoc in Hg. destruct Hg as [Hg|Hg].
    + specialize (J1 g Hg). lia.
    + subst g. lia.
  - right. destruct (N.max_spec (f_endp f) (hi (s_frags st))) as [[Hlt Q]|[Hge Q]].
    + destruct J2 as [J2|(g & Hg & J2)]; [lia|]. exists g. split; [apply in_snoc; left; exact Hg|lia].
    + exists f. split; [exact Hf|lia].
  - destruct e' as [E|]; exact He.
  - intros o d. split.
    + intros [Q|Q].
      * inversion Q; subst. exists f. auto.
      * apply (j_frags _ _ J) in Q. destruct Q as (g & Hg & Q). exists g. split; [apply in_snoc; left; exact Hg|exact Q].
    + intros (g & Hg & Ho & Hd). apply in_snoc in Hg. destruct Hg as [Hg|Hg].
      * right. apply (j_frags _ _ J). exists g. auto.
      * subst. left. reflexivity.
Qed.

(* one delivery is accepted exactly when it keeps the accepted set consistent *)
Lemma spec_step_ok hs st f : JInv hs st -> consistent hs ->
  (fst (spec_add st f) = VOk <-> consistent (hs ++ [f])) /\
  (fst (spec_add st f) = VOk -> JInv (hs ++ [f]) (snd (spec_add st f))).
Proof.
  intros J C. rewrite consistent_snoc.
  pose proof (j_hi_ge _ _ J) as J1. pose proof (j_hi_in _ _ J) as J2. pose proof (j_end _ _ J) as J3.
  assert (Hf : In f (hs ++ [f])) by (apply in_snoc; right; reflexivity).
  unfold spec_add, frag_wf, MAX_DEFRAG_LEN. cbv zeta.
  destruct (N.ltb_spec 65535 (f_endp f)) as [H1|H1].
  { cbn [fst snd]. split; [split; [discriminate|intros (_ & (W & _) & _); lia]|discriminate]. }
  destruct (f_mf f) eqn:Em; cbn [andb negb].
  - destruct (N.eqb_spec (len (f_data f) mod 8) 0) as [H2|H2]; cbn [negb].
    2:{ cbn [fst snd]. split; [split; [discriminate|intros (_ & (_ & W) & _); specialize (W eq_refl); lia]|discriminate]. }
    destruct (s_end st) as [E|] eqn:Ee.
    + rewrite orb_false_r. destruct J3 as [J3a (g0 & Hg0 & Hg0m & Hg0e)].
      destruct (N.ltb_spec E (f_endp f)) as [H3|H3]; cbn [fst snd].
      * split; [split; [discriminate|]|discriminate]. intros (_ & _ & H & _). specialize (H g0 Hg0 Hg0m). lia.
      * split.
        -- split; [intros _|reflexivity]. split; [exact C|]. split; [split; [exact H1|auto]|]. split; [|discriminate].
           intros g Hg Hm. destruct C as [_ C]. pose proof (C g g0 Hg Hg0 Hm). lia.
        -- intros _. apply JInv_push; [exact J|]. split; [lia|]. exists g0. split; [apply in_snoc; left; exact Hg0|auto].
    + cbn [fst snd]. split.
      * split; [intros _|reflexivity]. split; [exact C|]. split; [split; [exact H1|auto]|]. split; [|discriminate].
        intros g Hg Hm. rewrite (J3 g Hg) in Hm. discriminate.
      * intros _. apply JInv_push; [exact J|]. intros g Hg. apply in_app_or in Hg.
        destruct Hg as [Hg|[Hg|[]]]; [apply J3, Hg|subst g; exact Em].
  - destruct (s_end st) as [E|] eqn:Ee.
    + destruct J3 as [J3a (g0 & Hg0 & Hg0m & Hg0e)].
      destruct (N.ltb_spec E (f_endp f)) as [H3|H3]; cbn [orb].
      * cbn [fst snd]. split; [split; [discriminate|]|discriminate]. intros (_ & _ & H & _). specialize (H g0 Hg0 Hg0m). lia.
      * destruct (N.eqb_spec (f_endp f) E) as [H4|H4]; cbn [negb fst snd].
        -- split.
           ++ split; [intros _|reflexivity]. split; [exact C|]. split; [split; [exact H1|discriminate]|]. split.
              ** intros g Hg Hm. destruct C as [_ C]. pose proof (C g g0 Hg Hg0 Hm). lia.
              ** intros _ g Hg. specialize (J1 g Hg). lia.
           ++ intros _. apply JInv_push; [exact J|]. split; [lia|]. exists g0. split; [apply in_snoc; left; exact Hg0|auto].
        -- split; [split; [discriminate|]|discriminate]. intros (_ & _ & H & H').
           specialize (H g0 Hg0 Hg0m). specialize (H' eq_refl g0 Hg0). lia.
    + destruct (N.ltb_spec (f_endp f) (hi (s_frags st))) as [H3|H3]; cbn [fst snd].
      * split; [split; [discriminate|]|discriminate]. intros (_ & _ & _ & H').
        destruct J2 as [J2|(g & Hg & J2)]; [lia|]. specialize (H' eq_refl g Hg). lia.
      * split.
        -- split; [intros _|reflexivity]. split; [exact C|]. split; [split; [exact H1|discriminate]|]. split.
           ++ intros g Hg Hm. rewrite (J3 g Hg) in Hm. discriminate.
           ++ intros _ g Hg. specialize (J1 g Hg). lia.
        -- intros _. apply JInv_push; [exact J|]. split; [lia|]. exists f. auto.
Qed.

Lemma spec_all_ok : forall h hs st, JInv hs st -> consistent hs ->
  (Forall okobs (spec_trace st h) <-> consistent (hs ++ h)) /\
  (consistent (hs ++ h) -> JInv (hs ++ h) (spec_run st h)).
Proof.
  induction h as [|f h IH]; intros hs st J C.
  - rewrite app_nil_r. cbn [spec_trace]. split; [split; [intros _; exact C|constructor]|intros _; exact J].
  - destruct (spec_step_ok hs st f J C) as [S1 S2].
    cbn [spec_trace]. unfold spec_run. cbn [fold_left].
    destruct (spec_add st f) as [v st'] eqn:Es. cbn [fst snd] in *.
    assert (Hsub : consistent (hs ++ f :: h) -> consistent (hs ++ [f])).
    { intros Q. apply (consistent_incl _ _ Q). intros x Hx. apply in_app_or in Hx.
      apply in_or_app. destruct Hx as [Hx|[Hx|[]]]; [left; exact Hx|right; left; exact Hx]. }
    replace (hs ++ f :: h) with ((hs ++ [f]) ++ h) in * by (rewrite <- app_assoc; reflexivity).
    split; [split|].
    + intros F. inversion F as [|x l Hv Ft]; subst. unfold okobs, spec_obs in Hv. cbn [fst] in Hv.
      pose proof (proj1 S1 Hv) as C'. apply (IH (hs ++ [f]) st' (S2 Hv) C'). exact Ft.
    + intros Q. pose proof (Hsub Q) as C'. pose proof (proj2 S1 C') as Hv.
      constructor; [unfold okobs, spec_obs; cbn [fst]; exact Hv|].
      apply (IH (hs ++ [f]) st' (S2 Hv) C'). exact Q.
    + intros Q. pose proof (Hsub Q) as C'. pose proof (proj2 S1 C') as Hv.
      apply (IH (hs ++ [f]) st' (S2 Hv) C'). exact Q.
Qed.

Lemma JInv_complete hs st : JInv hs st -> consistent hs -> (spec_complete st = true <-> GCovered hs).
Proof.
  intros J C. rewrite spec_complete_iff. pose proof (j_end _ _ J) as J3. unfold GCovered. split.
  - intros (E & HE & Hall). rewrite HE in J3. destruct J3 as [_ (g0 & Hg0 & Hg0m & Hg0e)].
    exists g0. split; [exact Hg0|]. split; [exact Hg0m|]. intros i Hi. rewrite Hg0e in Hi.
    destruct (Hall i Hi) as [v Hv]. destruct (lookup_covers _ _ _ Hv) as (o & d & Hin & Hc & _).
    apply (j_frags _ _ J) in Hin. destruct Hin as (g & Hg & Ho & Hd). subst o d.
    exists g. split; [exact Hg|]. apply covers_iff in Hc. unfold f_endp. lia.
  - intros (f & Hf & Hfm & Hall). destruct (s_end st) as [E|].
    + destruct J3 as [_ (g0 & Hg0 & Hg0m & Hg0e)]. exists E. split; [reflexivity|]. intros i Hi.
      destruct C as [_ C]. pose proof (C f g0 Hf Hg0 Hfm). pose proof (C g0 f Hg0 Hf Hg0m).
      destruct (Hall i) as (g & Hg & Hr); [lia|].
      apply (covers_lookup _ (f_off g) (f_data g)).
      * apply (j_frags _ _ J). exists g. auto.
      * apply covers_iff. unfold f_endp in Hr. lia.
    + rewrite (J3 f Hf) in Hfm. discriminate.
Qed.

(* every delivery of h is accepted  <=>  h is a consistent set of fragments *)
Lemma all_ok_iff h ipn d s :
  Forall okobs (model_trace (buf_new ipn d s) h) <-> consistent h.
Proof.
  rewrite refines. apply (spec_all_ok h [] spec_new JInv_new consistent_nil).
Qed.

Lemma consistent_perm h1 h2 : Permutation h1 h2 -> consistent h1 -> consistent h2.
Proof.
  intros HP C. apply (consistent_incl _ _ C). intros x Hx.
  apply (Permutation_in x (Permutation_sym HP) Hx).
Qed.

Lemma GCovered_perm h1 h2 : Permutation h1 h2 -> GCovered h1 -> GCovered h2.
Proof.
  intros HP (f & Hf & Hm & Hall). exists f. split; [apply (Permutation_in f HP Hf)|]. split; [exact Hm|].
  intros i Hi. destruct (Hall i Hi) as (g & Hg & Hr). exists g. split; [apply (Permutation_in g HP Hg)|exact Hr].
Qed.

(* a consistent set, in any order: complete exactly when the set covers [0, end) *)
Lemma consistent_complete h ipn d s : consistent h ->
  (is_complete (model_run (buf_new ipn d s) h) = true <-> GCovered h).
Proof.
  intros C.
  destruct (refines_gen h (buf_new ipn d s) spec_new (Rel_new ipn d s)) as [_ R].
  rewrite (complete_agree _ _ R).
  destruct (spec_all_ok h [] spec_new JInv_new consistent_nil) as [_ J]. cbn [app] in J.
  apply (JInv_complete h _ (J C) C).
Qed.

Lemma order_independent h1 h2 ipn d s : Permutation h1 h2 ->
  (Forall okobs (model_trace (buf_new ipn d s) h1) <-> Forall okobs (model_trace (buf_new ipn d s) h2)) /\
  (Forall okobs (model_trace (buf_new ipn d s) h1) ->
     is_complete (model_run (buf_new ipn d s) h1) = is_complete (model_run (buf_new ipn d s) h2)).
Proof.
  intros HP. rewrite !all_ok_iff. split.
  - split; apply consistent_perm; [exact HP|apply Permutation_sym, HP].
  - intros C1. pose proof (consistent_perm _ _ HP C1) as C2.
    pose proof (consistent_complete h1 ipn d s C1) as Q1.
    pose proof (consistent_complete h2 ipn d s C2) as Q2.
    destruct (is_complete (model_run (buf_new ipn d s) h1)); destruct (is_complete (model_run (buf_new ipn d s) h2));
      try reflexivity.
    + assert (Q : false = true); [|discriminate]. apply Q2, (GCovered_perm _ _ HP), Q1. reflexivity.
    + assert (Q : false = true); [|discriminate]. apply Q1, (GCovered_perm _ _ (Permutation_sym HP)), Q2. reflexivity.
Qed.

(* ---------- fragments of one payload P: a consistent set that covers P ---------- *)
Lemma frag_of_consistent P h : len P <= 65535 -> Forall (frag_of P) h -> consistent h.
Proof.
  intros HP F. rewrite Forall_forall in F. split.
  - apply Forall_forall. intros f Hf. destruct (F f Hf) as (F1 & _ & F3 & _).
    split; [unfold MAX_DEFRAG_LEN; lia|exact F3].
  - intros f g Hf Hg Hm. destruct (F f Hf) as (_ & _ & _ & F4). rewrite (F4 Hm). apply (F g Hg).
Qed.

Lemma frag_of_covered P h : Forall (frag_of P) h -> (GCovered h <-> Covered P h).
Proof.
  intros F. rewrite Forall_forall in F. unfold GCovered, Covered. split.
  - intros (f & Hf & Hm & Hall). split; [eauto|]. destruct (F f Hf) as (_ & _ & _ & F4).
    rewrite <- (F4 Hm). exact Hall.
  - intros ((f & Hf & Hm) & Hall). exists f. split; [exact Hf|]. split; [exact Hm|].
    destruct (F f Hf) as (_ & _ & _ & F4). rewrite (F4 Hm). exact Hall.
Qed.

Lemma frags_lookup P hs st i v : JInv hs st -> Forall (frag_of P) hs ->
  lookup (s_frags st) i = Some v -> rd P i = Some v.
Proof.
  intros J F H. rewrite Forall_forall in F.
  destruct (lookup_covers _ _ _ H) as (o & d & Hin & Hc & Hr).
  apply (j_frags _ _ J) in Hin. destruct Hin as (f & Hf & -> & ->).
  destruct (F f Hf) as (_ & F2 & _). apply covers_iff in Hc.
  rewrite (rd_slice P (f_data f) (f_off f) (len (f_data f)) (i - f_off f) F2) in Hr by lia.
  now replace (f_off f + (i - f_off f)) with i in Hr by lia.
Qed.

Lemma frags_payload P hs st : JInv hs st -> Forall (frag_of P) hs ->
  spec_complete st = true -> spec_payload st = map Some P.
Proof.
  intros J F C. pose proof C as C'. apply spec_complete_iff in C'. destruct C' as (E & HE & Hall).
  pose proof (j_end _ _ J) as JE. rewrite HE in JE. destruct JE as [_ (g & Hg & Hgm & <-)].
  rewrite Forall_forall in F. destruct (F g Hg) as (_ & _ & _ & F4). rewrite (F4 Hgm) in *.
  unfold spec_payload. rewrite HE. apply dget_ext. intros i. rewrite !dget_map, dget_nseq.
  destruct (N.ltb_spec i (len P)) as [H|H]; cbn [option_map].
  - destruct (Hall i H) as [v Hv]. rewrite Hv.
    assert (Hr : rd P i = Some v) by (apply (frags_lookup P hs st i v J); [apply Forall_forall, F|exact Hv]).
    rewrite rd_dget in Hr. now rewrite Hr.
  - now rewrite dget_ge by lia.
Qed.

(* the buffer-level theorem *)
Lemma any_order P h ipn d0 s0 : len P <= 65535 -> Forall (frag_of P) h ->
  let b := model_run (buf_new ipn d0 s0) h in
  (is_complete b = true <-> Covered P h) /\
  (is_complete b = true -> b_data b = map Some P) /\
  Forall (fun o : obs => fst (fst o) = VOk) (model_trace (buf_new ipn d0 s0) h).
Proof.
  intros HP F b. pose proof (frag_of_consistent P h HP F) as C.
  destruct (refines_gen h (buf_new ipn d0 s0) spec_new (Rel_new ipn d0 s0)) as [_ R]. fold b in R.
  destruct (spec_all_ok h [] spec_new JInv_new consistent_nil) as [_ J]. specialize (J C). cbn [app] in J.
  split; [|split].
  - rewrite <- (frag_of_covered P h F). apply consistent_complete, C.
  - intros Cb. rewrite (payload_agree _ _ R Cb). apply (frags_payload P h _ J F).
    now rewrite <- (complete_agree _ _ R).
  - exact (proj2 (all_ok_iff h ipn d0 s0) C).
Qed.

Lemma Forall_firstn' {A} (Q : A -> Prop) : forall k l, Forall Q l -> Forall Q (firstn k l).
Proof.
  induction k as [|k IH]; intros l F; [constructor|]. destruct l as [|x l]; [constructor|].
  inversion F; subst. cbn [firstn]. constructor; auto.
Qed.

Lemma any_order_prefix P h k ipn d0 s0 : len P <= 65535 -> Forall (frag_of P) h ->
  let b := model_run (buf_new ipn d0 s0) (firstn k h) in
  (is_complete b = true <-> Covered P (firstn k h)) /\
  (is_complete b = true -> b_data b = map Some P).
Proof.
  intros HP F.
  destruct (any_order P (firstn k h) ipn d0 s0 HP (Forall_firstn' _ k h F)) as (A1 & A2 & _).
  split; assumption.
Qed.

(* cuts *)
Lemma cut_frag_of P : forall sizes fo, (fo + sumN sizes) * 8 <= len P ->
  Forall (frag_of P) (cut_at P fo sizes).
Proof.
  induction sizes as [|n r IH]; intros fo H; cbn [cut_at sumN] in *.
  - constructor; [|constructor]. unfold frag_of, f_endp, f_off; cbn [f_fo f_mf f_data].
    rewrite len_drop. split; [lia|]. split; [|split; [discriminate|intros _; lia]].
    rewrite <- len_drop. symmetry. apply take_len.
  - constructor; [|apply IH; lia]. unfold frag_of, f_endp, f_off; cbn [f_fo f_mf f_data].
    assert (Hl : len (take (n * 8) (drop (fo * 8) P)) = n * 8) by (rewrite len_take, len_drop; lia).
    rewrite Hl. split; [lia|]. split; [reflexivity|]. split; [|discriminate].
    intros _. apply N.mod_mul. lia.
Qed.

Lemma cut_covers P : forall sizes fo, (fo + sumN sizes) * 8 <= len P ->
  (exists f, In f (cut_at P fo sizes) /\ f_mf f = false) /\
  forall i, fo * 8 <= i < len P -> exists f, In f (cut_at P fo sizes) /\ f_off f <= i < f_endp f.
Proof.
  induction sizes as [|n r IH]; intros fo H; cbn [cut_at sumN] in *.
  - split.
    + eexists. split; [left; reflexivity|reflexivity].
    + intros i Hi. eexists. split; [left; reflexivity|].
      unfold f_endp, f_off; cbn [f_fo f_data]. rewrite len_drop. lia.
  - destruct (IH (fo + n)) as [(g & Hg & Hgm) Hall]; [lia|]. split.
    + exists g. split; [right; exact Hg|exact Hgm].
    + intros i Hi. destruct (N.lt_ge_cases i ((fo + n) * 8)) as [C|C].
      * eexists. split; [left; reflexivity|].
        unfold f_endp, f_off; cbn [f_fo f_data]. rewrite len_take, len_drop. lia.
      * destruct (Hall i) as (f & Hf & Hr); [lia|]. exists f. split; [right; exact Hf|exact Hr].
Qed.

Lemma cut_any_order P sizes h ipn d0 s0 : len P <= 65535 -> sumN sizes * 8 <= len P ->
  (forall f, In f h -> In f (cut_at P 0 sizes)) ->
  let b := model_run (buf_new ipn d0 s0) h in
  (is_complete b = true <-> Covered P h) /\
  (is_complete b = true -> b_data b = map Some P) /\
  ((forall f, In f (cut_at P 0 sizes) -> In f h) -> is_complete b = true).
Proof.
  intros HP Hs Hin b.
  assert (F : Forall (frag_of P) h).
  { rewrite Forall_forall. intros f Hf. pose proof (cut_frag_of P sizes 0) as Q.
    rewrite Forall_forall in Q. apply Q; [lia|apply Hin, Hf]. }
  destruct (any_order P h ipn d0 s0 HP F) as (A1 & A2 & _). fold b in A1, A2.
  split; [exact A1|]. split; [exact A2|]. intros Hall. apply A1.
  destruct (cut_covers P sizes 0) as [(g & Hg & Hgm) Hc]; [lia|]. split.
  - exists g. split; [apply Hall, Hg|exact Hgm].
  - intros i Hi. destruct (Hc i) as (f & Hf & Hr); [lia|]. exists f. split; [apply Hall, Hf|exact Hr].
Qed.

(* rejects *)
Lemma aligned_false f : (f_mf f = true -> len (f_data f) mod 8 = 0) ->
  f_mf f && negb (len (f_data f) mod 8 =? 0) = false.
Proof. destruct (f_mf f); [|reflexivity]. intros H. now rewrite (H eq_refl). Qed.

Lemma reject_toobig b f : 65535 < f_endp f ->
  model_step b f = (VTooBig (f_fo f) (len (f_data f)), b).
Proof.
  intros H. unfold model_step. rewrite add_check. unfold check.
  now rewrite (proj2 (N.ltb_lt _ _) H).
Qed.

Lemma reject_unaligned b f : f_endp f <= 65535 -> f_mf f = true -> len (f_data f) mod 8 <> 0 ->
  model_step b f = (VUnaligned (f_fo f) (len (f_data f)), b).
Proof.
  intros H Hm Hu. unfold model_step. rewrite add_check. unfold check.
  now rewrite (proj2 (N.ltb_ge _ _) H), Hm, (proj2 (N.eqb_neq _ _) Hu).
Qed.

Lemma reject_conflict b f prev : f_endp f <= 65535 -> (f_mf f = true -> len (f_data f) mod 8 = 0) ->
  b_end b = Some prev -> (prev < f_endp f \/ (f_mf f = false /\ f_endp f <> prev)) ->
  model_step b f = (VConflict prev (f_endp f), b).
Proof.
  intros H Ha He Hc. unfold model_step. rewrite add_check. unfold check.
  rewrite (proj2 (N.ltb_ge _ _) H), (aligned_false f Ha), He.
  assert (Ht : (prev <? f_endp f) || negb (f_mf f) && negb (f_endp f =? prev) = true).
  { destruct Hc as [Hc|[-> Hc]]; [now rewrite (proj2 (N.ltb_lt _ _) Hc)|].
    rewrite (proj2 (N.eqb_neq _ _) Hc). apply orb_true_r. }
  now rewrite Ht.
Qed.

(* the total length is still unknown and a final fragment ends below the
   largest section end *)
Lemma reject_late_end b f r : f_endp f <= 65535 -> b_end b = None -> f_mf f = false ->
  In r (b_sections b) -> (forall r', In r' (b_sections b) -> r_end r' <= r_end r) ->
  f_endp f < r_end r ->
  model_step b f = (VConflict (r_end r) (f_endp f), b).
Proof.
  intros H He Hm Hr Hmax Hc. unfold model_step. rewrite add_check. unfold check.
  rewrite (proj2 (N.ltb_ge _ _) H), Hm, He, (top_eq _ r Hr Hmax).
  now rewrite (proj2 (N.ltb_lt _ _) Hc).
Qed.

Lemma accept_ok b f : accepts b f -> exists b', model_step b f = (VOk, b').
Proof. intros A. unfold model_step. rewrite (add_accepts b f A). eauto. Qed.
(* ---------- the pool ---------- *)
Lemma fid_eqb_eq : forall a b, fid_eqb a b = true <-> a = b.
Proof.
  induction a as [|x a IH]; intros [|y b]; cbn [fid_eqb]; split; intros H; try reflexivity; try discriminate.
  - apply andb_true_iff in H. destruct H as [H1 H2]. apply N.eqb_eq in H1. apply IH in H2. congruence.
  - inversion H; subst. rewrite N.eqb_refl. cbn [andb]. apply IH. reflexivity.
Qed.

Lemma fid_eqb_refl a : fid_eqb a a = true.
Proof. apply fid_eqb_eq. reflexivity. Qed.

Lemma fid_eqb_neq a b : a <> b -> fid_eqb a b = false.
Proof. intros H. destruct (fid_eqb a b) eqn:E; [|reflexivity]. apply fid_eqb_eq in E. contradiction. Qed.

Section Assoc.
  Context {V : Type}.
  Implicit Types (l : list (fid * V)).

  Lemma alookup_aremove_same k l : alookup k (aremove k l) = None.
  Proof.
    induction l as [|[k' v] l IH]; cbn [aremove alookup]; [reflexivity|].
    destruct (fid_eqb k k') eqn:E; [exact IH|]. cbn [alookup]. rewrite E. exact IH.
  Qed.

  Lemma alookup_aremove_other k k' l : k <> k' -> alookup k' (aremove k l) = alookup k' l.
  Proof.
    intros H. induction l as [|[k2 v] l IH]; cbn [aremove alookup]; [reflexivity|].
    destruct (fid_eqb k k2) eqn:E.
    - apply fid_eqb_eq in E. subst k2. rewrite (fid_eqb_neq k' k) by congruence. exact IH.
    - cbn [alookup]. rewrite IH. reflexivity.
  Qed.

  Lemma alookup_aset_same k v l : alookup k (aset k v l) = Some v.
  Proof.
    induction l as [|[k' v'] l IH]; cbn [aset alookup].
    - rewrite fid_eqb_refl. reflexivity.
    - destruct (fid_eqb k k') eqn:E; cbn [alookup]; [rewrite fid_eqb_refl; reflexivity|].
      rewrite E. exact IH.
  Qed.

  Lemma alookup_aset_other k k' v l : k <> k' -> alookup k' (aset k v l) = alookup k' l.
  Proof.
    intros H. induction l as [|[k2 v2] l IH]; cbn [aset alookup].
    - rewrite (fid_eqb_neq k' k) by congruence. reflexivity.
    - destruct (fid_eqb k k2) eqn:E; cbn [alookup].
      + apply fid_eqb_eq in E. subst k2. rewrite (fid_eqb_neq k' k) by congruence.
        apply alookup_aremove_other. exact H.
      + rewrite IH. reflexivity.
  Qed.
End Assoc.

Definition view (id : fid) (p : pool) : option (buf * N) := alookup id (p_active p).

(* what process_sliced_packet does to one stream, alone *)
Definition stream_step (s : option (buf * N)) (k : pkt) (ts : N) : pres * option (buf * N) :=
  let f := k_frag k in
  if negb (is_fragmenting f) then (PNone, s) else
  match s with
  | Some (b, t) =>
      match add b f with
      | AddOk b' => if is_complete b' then (PDone (k_ipn k) (k_v4 k) (b_data b'), None)
                    else (PNone, Some (b', ts))
      | AddErr v => (PErr v, s)
      | AddPanic => (PErr VPanic, s)
      end
  | None =>
      match add (buf_new (k_ipn k) [] []) f with
      | AddOk b' => (PNone, Some (b', ts))
      | AddErr v => (PErr v, None)
      | AddPanic => (PErr VPanic, None)
      end
  end.

Lemma process_view p k ts :
  fst (process p k ts) = fst (stream_step (view (k_id k) p) k ts) /\
  view (k_id k) (snd (process p k ts)) = snd (stream_step (view (k_id k) p) k ts) /\
  forall id', id' <> k_id k -> view id' (snd (process p k ts)) = view id' p.
Proof.
  unfold process, stream_step, view.
  destruct (negb (is_fragmenting (k_frag k))); [cbn [fst snd]; auto|].
  destruct (alookup (k_id k) (p_active p)) as [[b t]|] eqn:El.
  - destruct (add b (k_frag k)) as [b'| v |]; try (cbn [fst snd]; rewrite El; auto).
    destruct (is_complete b'); cbn [fst snd p_active].
    + split; [reflexivity|]. split; [apply alookup_aremove_same|].
      intros id' H. apply alookup_aremove_other. congruence.
    + split; [reflexivity|]. split; [apply alookup_aset_same|].
      intros id' H. apply alookup_aset_other. congruence.
  - destruct (pop (p_fdata p)) as [d fd]. destruct (pop (p_fsec p)) as [s fs].
    change (buf_new (k_ipn k) d s) with (buf_new (k_ipn k) [] []).
    destruct (add (buf_new (k_ipn k) [] []) (k_frag k)) as [b'| v |]; cbn [fst snd p_active].
    + split; [reflexivity|]. split; [apply alookup_aset_same|].
      intros id' H. apply alookup_aset_other. congruence.
    + rewrite El. auto.
    + rewrite El. auto.
Qed.

Inductive pool_op := ODeliver (k : pkt) (ts : N) | OReturn (payload : list (option byte)).

Fixpoint pool_trace (p : pool) (ops : list pool_op) : list (fid * pres) :=
  match ops with
  | [] => []
  | ODeliver k ts :: r => let '(res, p') := process p k ts in (k_id k, res) :: pool_trace p' r
  | OReturn pl :: r => pool_trace (return_buf p pl) r
  end.

Fixpoint stream_trace (s : option (buf * N)) (ks : list (pkt * N)) : list pres :=
  match ks with
  | [] => []
  | (k, ts) :: r => let '(res, s') := stream_step s k ts in res :: stream_trace s' r
  end.

(* the deliveries of one stream id, in order *)
Fixpoint for_id (id : fid) (ops : list pool_op) : list (pkt * N) :=
  match ops with
  | [] => []
  | ODeliver k ts :: r => if fid_eqb (k_id k) id then (k, ts) :: for_id id r else for_id id r
  | OReturn _ :: r => for_id id r
  end.

Definition results_for (id : fid) (tr : list (fid * pres)) : list pres :=
  map snd (filter (fun r => fid_eqb (fst r) id) tr).

Lemma isolation : forall ops p id,
  results_for id (pool_trace p ops) = stream_trace (view id p) (for_id id ops).
Proof.
  induction ops as [|[k ts|pl] ops IH]; intros p id; cbn [pool_trace for_id].
  - reflexivity.
  - destruct (process_view p k ts) as (H1 & H2 & H3).
    destruct (process p k ts) as [res p'] eqn:Ep. cbn [fst snd] in *.
    unfold results_for. cbn [filter fst]. destruct (fid_eqb (k_id k) id) eqn:E.
    + apply fid_eqb_eq in E. subst id. cbn [map snd stream_trace].
      destruct (stream_step (view (k_id k) p) k ts) as [res' s'] eqn:Es. cbn [fst snd] in *. subst res'.
      f_equal. rewrite <- H2. apply IH.
    + fold (results_for id (pool_trace p' ops)). rewrite IH. rewrite H3; [reflexivity|].
      intros Q. subst id. rewrite fid_eqb_refl in E. discriminate.
  - rewrite IH. reflexivity.
Qed.

(* ---------- one stream through the pool: fragments of one payload ---------- *)
Lemma model_step_ok b f b' : model_step b f = (VOk, b') -> add b f = AddOk b'.
Proof.
  unfold model_step. rewrite add_check.
  destruct (check (b_end b) (top (b_sections b)) f); try discriminate. now intros [= <-].
Qed.

Lemma model_run_snoc b hs f : model_run b (hs ++ [f]) = snd (model_step (model_run b hs) f).
Proof. unfold model_run. rewrite fold_left_app. reflexivity. Qed.

Lemma consistent_add P hs ipn d s f : len P <= 65535 -> Forall (frag_of P) hs -> frag_of P f ->
  add (model_run (buf_new ipn d s) hs) f = AddOk (model_run (buf_new ipn d s) (hs ++ [f])).
Proof.
  intros HP F Ff. pose proof (frag_of_consistent P hs HP F) as C.
  assert (C' : consistent (hs ++ [f])).
  { apply (frag_of_consistent P _ HP), Forall_app. split; [exact F|]. now constructor. }
  destruct (spec_all_ok hs [] spec_new JInv_new consistent_nil) as [_ J]. specialize (J C). cbn [app] in J.
  destruct (refines_gen hs (buf_new ipn d s) spec_new (Rel_new ipn d s)) as [_ R].
  pose proof (proj2 (proj1 (spec_step_ok hs _ f J C)) C') as Hv.
  destruct (sim_step _ _ f R) as [Hm _]. rewrite Hv in Hm.
  apply model_step_ok. rewrite model_run_snoc.
  destruct (model_step (model_run (buf_new ipn d s) hs) f) as [v b'] eqn:E. cbn [fst snd] in *. subst v. reflexivity.
Qed.

Lemma fragmenting_not_covered P f : frag_of P f -> is_fragmenting f = true -> ~ Covered P [f].
Proof.
  intros (F1 & F2 & F3 & F4) Hf ((g & [Hg|[]] & Hgm) & Hall). subst g.
  unfold is_fragmenting in Hf. rewrite Hgm in Hf. cbn [orb] in Hf.
  destruct (N.eqb_spec (f_fo f) 0) as [Q|Q]; [discriminate|].
  specialize (F4 Hgm). unfold f_endp, f_off in *.
  destruct (Hall 0) as (g & [Hg|[]] & Hr); [lia|]. subst g. lia.
Qed.

Section OneStream.
  Variable P : bytes.
  Hypothesis HP : len P <= 65535.

  Definition pkt_ok (kt : pkt * N) : Prop :=
    frag_of P (k_frag (fst kt)) /\ is_fragmenting (k_frag (fst kt)) = true.
  Definition frags_of (ks : list (pkt * N)) : list frag := map (fun kt => k_frag (fst kt)) ks.

  (* the stream's entry in `active` after the deliveries hs of the current datagram *)
  Definition sstate (hs : list frag) (s : option (buf * N)) : Prop :=
    (hs = [] /\ s = None) \/
    (hs <> [] /\ exists ipn t, s = Some (model_run (buf_new ipn [] []) hs, t)).

  Fixpoint stream_run (s : option (buf * N)) (ks : list (pkt * N)) : option (buf * N) :=
    match ks with
    | [] => s
    | (k, ts) :: r => stream_run (snd (stream_step s k ts)) r
    end.

  Lemma stream_step_consistent hs s k ts : sstate hs s -> Forall (frag_of P) hs -> pkt_ok (k, ts) ->
    (~ Covered P (hs ++ [k_frag k]) ->
       fst (stream_step s k ts) = PNone /\ sstate (hs ++ [k_frag k]) (snd (stream_step s k ts))) /\
    (Covered P (hs ++ [k_frag k]) ->
       stream_step s k ts = (PDone (k_ipn k) (k_v4 k) (map Some P), None)).
  Proof.
    intros St F [Ff Hfr]. cbn [fst] in Ff, Hfr.
    assert (F' : Forall (frag_of P) (hs ++ [k_frag k])).
    { apply Forall_app. split; [exact F|constructor; [exact Ff|constructor]]. }
    unfold stream_step. rewrite Hfr. cbn [negb].
    destruct St as [[Hh Hs]|(Hh & ipn & t & Hs)]; subst s.
    - subst hs. cbn [app] in *.
      pose proof (consistent_add P [] (k_ipn k) [] [] (k_frag k) HP F Ff) as Ha.
      change (model_run (buf_new (k_ipn k) [] []) []) with (buf_new (k_ipn k) [] []) in Ha.
      cbn [app] in Ha. rewrite Ha. cbn [fst snd]. split.
      + intros _. split; [reflexivity|]. right. split; [discriminate|]. eauto.
      + intros C. exfalso. exact (fragmenting_not_covered P _ Ff Hfr C).
    - rewrite (consistent_add P hs ipn [] [] (k_frag k) HP F Ff).
      destruct (any_order P (hs ++ [k_frag k]) ipn [] [] HP F') as (A1 & A2 & _).
      cbn zeta in A1, A2.
      destruct (is_complete (model_run (buf_new ipn [] []) (hs ++ [k_frag k]))) eqn:C.
      + split.
        * intros NC. exfalso. apply NC, A1. reflexivity.
        * intros _. rewrite (A2 eq_refl). reflexivity.
      + split.
        * intros _. cbn [fst snd]. split; [reflexivity|]. right. split; [|eauto].
          destruct hs; discriminate.
        * intros Cv. apply A1 in Cv. discriminate.
  Qed.

  Lemma stream_none_gen : forall ks hs s, sstate hs s -> Forall (frag_of P) hs ->
    (forall kt, In kt ks -> pkt_ok kt) ->
    (forall j, (1 <= j <= length ks)%nat -> ~ Covered P (hs ++ firstn j (frags_of ks))) ->
    stream_trace s ks = map (fun _ => PNone) ks /\ sstate (hs ++ frags_of ks) (stream_run s ks).
  Proof.
    induction ks as [|[k ts] r IH]; intros hs s St F Hok Hnc.
    - cbn. rewrite app_nil_r. auto.
    - cbn [stream_trace stream_run map frags_of].
      assert (Hk : pkt_ok (k, ts)) by (apply Hok; left; reflexivity).
      destruct (stream_step_consistent hs s k ts St F Hk) as [SN _].
      assert (NC1 : ~ Covered P (hs ++ [k_frag k])).
      { specialize (Hnc 1%nat). cbn [length firstn frags_of map fst] in Hnc. apply Hnc. lia. }
      destruct (SN NC1) as [Hres St'].
      destruct (stream_step s k ts) as [res s'] eqn:Es. cbn [fst snd] in *. subst res.
      destruct (IH (hs ++ [k_frag k]) s' St') as [Ht Hs].
      + apply Forall_app. split; [exact F|]. constructor; [apply Hk|constructor].
      + intros kt Hkt. apply Hok. right. exact Hkt.
      + intros j Hj. rewrite <- app_assoc. cbn [app].
        specialize (Hnc (S j)). cbn [length firstn frags_of map fst] in Hnc. apply Hnc. lia.
      + rewrite Ht. split; [reflexivity|]. rewrite <- app_assoc in Hs. exact Hs.
  Qed.

  Lemma stream_trace_app : forall a b s,
    stream_trace s (a ++ b) = stream_trace s a ++ stream_trace (stream_run s a) b.
  Proof.
    induction a as [|[k ts] a IH]; intros b s; [reflexivity|].
    cbn [app stream_trace stream_run]. destruct (stream_step s k ts) as [res s']. cbn [snd].
    rewrite IH. reflexivity.
  Qed.

  Lemma stream_run_app : forall a b s, stream_run s (a ++ b) = stream_run (stream_run s a) b.
  Proof.
    induction a as [|[k ts] a IH]; intros b s; [reflexivity|]. cbn [app stream_run]. apply IH.
  Qed.

  (* nothing is returned while the delivered fragments do not cover P ... *)
  Lemma pool_never_early ks : (forall kt, In kt ks -> pkt_ok kt) ->
    (forall j, (j <= length ks)%nat -> ~ Covered P (firstn j (frags_of ks))) ->
    stream_trace None ks = map (fun _ => PNone) ks.
  Proof.
    intros Hok Hnc.
    destruct (stream_none_gen ks [] None) as [Ht _]; auto.
    - left. auto.
    - intros j Hj. cbn [app]. apply Hnc. lia.
  Qed.

  (* ... and the delivery that completes the cover returns P, once, and releases the stream *)
  Lemma pool_completes ks k ts : (forall kt, In kt ks -> pkt_ok kt) -> pkt_ok (k, ts) ->
    (forall j, (j <= length ks)%nat -> ~ Covered P (firstn j (frags_of ks))) ->
    Covered P (frags_of ks ++ [k_frag k]) ->
    stream_trace None (ks ++ [(k, ts)]) =
      map (fun _ => PNone) ks ++ [PDone (k_ipn k) (k_v4 k) (map Some P)] /\
    stream_run None (ks ++ [(k, ts)]) = None.
  Proof.
    intros Hok Hk Hnc Hc.
    destruct (stream_none_gen ks [] None) as [Ht Hs]; auto.
    - left. auto.
    - intros j Hj. cbn [app]. apply Hnc. lia.
    - cbn [app] in Hs.
      assert (F : Forall (frag_of P) (frags_of ks)).
      { rewrite Forall_forall. intros f Hf. unfold frags_of in Hf. apply in_map_iff in Hf.
        destruct Hf as (kt & Hkt & Hin). subst f. apply (Hok kt Hin). }
      destruct (stream_step_consistent _ _ k ts Hs F Hk) as [_ SC]. specialize (SC Hc).
      rewrite stream_trace_app, stream_run_app, Ht. cbn [stream_trace stream_run].
      rewrite SC. cbn [snd]. auto.
  Qed.
End OneStream.

(* ---------- no stale / unwritten byte in anything the pool returns (every history) ---------- *)
Definition no_None (pl : list (option byte)) : Prop := forall x, In x pl -> x <> None.

Lemma complete_data_no_None b : Inv b -> is_complete b = true -> no_None (b_data b).
Proof.
  intros I C x Hx. apply In_nth_error in Hx. destruct Hx as [n Hn].
  destruct (complete_no_None b I C (N.of_nat n)) as [v Hv].
  - apply (dget_Some_lt _ _ x). unfold dget. rewrite Nat2N.id. exact Hn.
  - unfold dget in Hv. rewrite Nat2N.id in Hv. congruence.
Qed.

Definition res_ok (r : pres) : Prop :=
  match r with PDone _ _ pl => no_None pl | PErr VPanic => False | _ => True end.
Definition sinv (s : option (buf * N)) : Prop := match s with Some (b, _) => Inv b | None => True end.

Lemma err_res_ok b f v : add b f = AddErr v -> res_ok (PErr v).
Proof.
  intros E. apply add_err_inv in E as [-> _].
  pose proof (check_not_panic (b_end b) (top (b_sections b)) f).
  now destruct (check (b_end b) (top (b_sections b)) f).
Qed.

Lemma stream_step_ok s k ts : sinv s ->
  res_ok (fst (stream_step s k ts)) /\ sinv (snd (stream_step s k ts)).
Proof.
  intros I. unfold stream_step. destruct (negb (is_fragmenting (k_frag k))); [cbn; auto|].
  destruct s as [[b t]|].
  - cbn [sinv] in I. pose proof (add_never_panics b (k_frag k)) as NP.
    destruct (add b (k_frag k)) as [b'|v|] eqn:E; [| |congruence].
    + pose proof (add_preserves_Inv b _ b' I E) as I'.
      destruct (is_complete b') eqn:C; cbn [fst snd res_ok sinv]; [|auto].
      split; [apply complete_data_no_None; assumption|exact Logic.I].
    + cbn [fst snd sinv]. split; [exact (err_res_ok _ _ _ E)|exact I].
  - pose proof (add_never_panics (buf_new (k_ipn k) [] []) (k_frag k)) as NP.
    destruct (add (buf_new (k_ipn k) [] []) (k_frag k)) as [b'|v|] eqn:E; [| |congruence].
    + cbn [fst snd res_ok sinv]. split; [exact Logic.I|].
      apply (add_preserves_Inv _ _ b' (Inv_new _ _ _) E).
    + cbn [fst snd sinv]. split; [exact (err_res_ok _ _ _ E)|exact Logic.I].
Qed.

Lemma stream_trace_ok : forall ks s, sinv s -> Forall res_ok (stream_trace s ks).
Proof.
  induction ks as [|[k ts] ks IH]; intros s I; cbn [stream_trace]; [constructor|].
  destruct (stream_step_ok s k ts I) as [H1 H2].
  destruct (stream_step s k ts) as [res s']. cbn [fst snd] in *. constructor; [exact H1|apply IH, H2].
Qed.

Lemma pool_no_leak ops id : Forall res_ok (results_for id (pool_trace pool_new ops)).
Proof. rewrite isolation. apply stream_trace_ok. exact Logic.I. Qed.

Lemma passthrough p k ts : is_fragmenting (k_frag k) = false -> process p k ts = (PNone, p).
Proof. intros H. unfold process. rewrite H. reflexivity. Qed.

(* while the total length is unknown, the largest section end IS the data length
   (so comparing the final fragment's end with data.len() gives the same answer) *)
Lemma sec_max_is_len b : Inv b -> b_end b = None ->
  match sec_max (b_sections b) with
  | Some m => m = len (b_data b)
  | None => len (b_data b) = 0
  end.
Proof.
  intros I _. rewrite (Inv_len_top b I), sec_max_top. now destruct (b_sections b).
Qed.

(* an accepted final fragment never shortens the data: after growth and copy the
   data already has length `end`, the closing set_len(end) changes nothing *)
Lemma final_set_len_noop b f : Inv b -> accepts b f -> f_mf f = false ->
  len (written b f) = f_endp f /\ take (f_endp f) (written b f) = written b f.
Proof.
  intros I A Hm. pose proof (final_ge_len b f I A Hm).
  assert (Hl : len (written b f) = f_endp f) by (rewrite len_written; lia).
  split; [exact Hl|]. rewrite <- Hl. apply take_len.
Qed.

(* ---------- a final fragment that ends below data received earlier ---------- *)
(* [0,16) non-final and [8,12) final: whichever comes second is rejected, with the
   values the crate reports, and the buffer stays as it was *)
Lemma f8_regression :
  let a := mkFrag 0 true [0;1;2;3;4;5;6;7;8;9;10;11;12;13;14;15] in
  let z := mkFrag 1 false [170;187;204;221] in
  let ba := model_run (buf_new 17 [] []) [a] in
  let bz := model_run (buf_new 17 [] []) [z] in
  LateEndClass [a; z] /\
  model_step ba z = (VConflict 16 12, ba) /\
  model_step bz a = (VConflict 12 16, bz) /\
  model_trace (buf_new 17 [] []) [a; z] = [(VOk, false, None); (VConflict 16 12, false, None)] /\
  spec_trace spec_new [a; z] = [(VOk, false, None); (VConflict 16 12, false, None)] /\
  model_trace (buf_new 17 [] []) [z; a] = [(VOk, false, None); (VConflict 12 16, false, None)] /\
  spec_trace spec_new [z; a] = [(VOk, false, None); (VConflict 12 16, false, None)].
Proof. cbv zeta. repeat split; vm_compute; reflexivity. Qed.

(* variants: several stored sections (the maximum is reported, not the last one
   nor the data length of an earlier state), an overlapping final fragment, and a
   final fragment that ends exactly at the maximum, which is accepted *)
Lemma f8_variants :
  let s0 := mkFrag 0 true [1;2;3;4;5;6;7;8] in
  let s4 := mkFrag 4 true [41;42;43;44;45;46;47;48] in
  let s2 := mkFrag 2 true [21;22;23;24;25;26;27;28] in
  let b := model_run (buf_new 6 [] []) [s0; s4; s2] in
  b_sections b = [mkRange 0 8; mkRange 32 40; mkRange 16 24] /\
  model_step b (mkFrag 3 false [9;9;9]) = (VConflict 40 27, b) /\
  model_step b (mkFrag 4 false [9;9;9;9;9;9;9]) = (VConflict 40 39, b) /\
  fst (model_step b (mkFrag 4 false [9;9;9;9;9;9;9;9])) = VOk /\
  fst (model_step b (mkFrag 5 false [])) = VOk /\
  fst (model_step b (mkFrag 5 false [7])) = VOk /\
  map (fun o : obs => fst o)
      (model_trace (buf_new 6 [] []) [mkFrag 0 true [0;1;2;3;4;5;6;7;8;9;10;11;12;13;14;15];
                                      mkFrag 1 false [170;187;204;221;1;2;3;4]])
    = [(VOk, false); (VOk, true)].
Proof. cbv zeta. repeat split; vm_compute; reflexivity. Qed.

Lemma no_leak h ipn d s :
  let b := model_run (buf_new ipn d s) h in
  is_complete b = true -> no_None (b_data b).
Proof. cbv zeta. apply complete_data_no_None, model_run_Inv, Inv_new. Qed.
