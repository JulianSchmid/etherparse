(* Defrag/PoolProofs.v -- lemmas about the pool's bookkeeping (release of
   streams, recycling of buffers, retain) over histories of any length. *)
From EP Require Import Base.Bytes Base.Lists Defrag.Spec Defrag.Model Defrag.Proofs Defrag.PoolModel.
Local Open Scope N_scope.

(* ---------- association lists with one entry per key ---------- *)
Section AssocND.
  Context {V : Type}.
  Implicit Types (l : list (fid * V)).

  Lemma alookup_None_notin k l : alookup k l = None <-> ~ In k (map fst l).
  Proof.
    induction l as [|[k' v] l IH]; cbn [alookup map fst In]; [tauto|].
    destruct (fid_eqb k k') eqn:E.
    - apply fid_eqb_eq in E. subst k'. split; [discriminate|]. intros H. exfalso. apply H. left. reflexivity.
    - rewrite IH. split.
      + intros H [Q|Q]; [subst k'; rewrite fid_eqb_refl in E; discriminate|tauto].
      + tauto.
  Qed.

  Lemma aremove_notin k l : alookup k l = None -> aremove k l = l.
  Proof.
    induction l as [|[k' v] l IH]; cbn [alookup aremove]; [reflexivity|].
    destruct (fid_eqb k k'); [discriminate|]. intros H. rewrite (IH H). reflexivity.
  Qed.

  Lemma keys_aremove k k' l : In k' (map fst (aremove k l)) -> In k' (map fst l) /\ k' <> k.
  Proof.
    induction l as [|[k2 v] l IH]; cbn [aremove map fst In]; [tauto|].
    destruct (fid_eqb k k2) eqn:E.
    - intros H. destruct (IH H). tauto.
    - cbn [map fst In]. intros [Q|Q].
      + subst k2. split; [left; reflexivity|]. intros Q. subst k'. rewrite fid_eqb_refl in E. discriminate.
      + destruct (IH Q). tauto.
  Qed.

  Lemma NoDup_aremove k l : NoDup (map fst l) -> NoDup (map fst (aremove k l)).
  Proof.
    induction l as [|[k2 v] l IH]; cbn [aremove map fst]; [auto|].
    intros H. inversion H as [|x xs Hn Hd]; subst.
    destruct (fid_eqb k k2); [auto|]. cbn [map fst]. constructor; [|auto].
    intros Q. apply keys_aremove in Q. tauto.
  Qed.

  Lemma len_aremove k v l : NoDup (map fst l) -> alookup k l = Some v -> len (aremove k l) + 1 = len l.
  Proof.
    induction l as [|[k2 v2] l IH]; cbn [aremove alookup map fst]; [discriminate|].
    intros H. inversion H as [|x xs Hn Hd]; subst.
    destruct (fid_eqb k k2) eqn:E.
    - intros _. apply fid_eqb_eq in E. subst k2.
      rewrite aremove_notin by (apply alookup_None_notin; exact Hn). rewrite len_cons. lia.
    - intros Hl. rewrite !len_cons. specialize (IH Hd Hl). lia.
  Qed.

  Lemma keys_aset k v k' l : In k' (map fst (aset k v l)) -> k' = k \/ In k' (map fst l).
  Proof.
    induction l as [|[k2 v2] l IH]; cbn [aset map fst In].
    - intros [Q|[]]. left. congruence.
    - destruct (fid_eqb k k2) eqn:E; cbn [map fst In].
      + intros [Q|Q]; [left; congruence|]. apply keys_aremove in Q. tauto.
      + intros [Q|Q]; [tauto|]. destruct (IH Q); tauto.
  Qed.

  Lemma NoDup_aset k v l : NoDup (map fst l) -> NoDup (map fst (aset k v l)).
  Proof.
    induction l as [|[k2 v2] l IH]; cbn [aset map fst].
    - intros _. constructor; [intros []|constructor].
    - intros H. inversion H as [|x xs Hn Hd]; subst.
      destruct (fid_eqb k k2) eqn:E; cbn [map fst].
      + constructor; [|apply NoDup_aremove; exact Hd].
        intros Q. apply keys_aremove in Q. tauto.
      + constructor; [|auto]. intros Q. apply keys_aset in Q. destruct Q as [Q|Q]; [|tauto].
        subst k2. rewrite fid_eqb_refl in E. discriminate.
  Qed.

  Lemma len_aset_new k v l : alookup k l = None -> len (aset k v l) = len l + 1.
  Proof.
    induction l as [|[k2 v2] l IH]; cbn [aset alookup]; [reflexivity|].
    destruct (fid_eqb k k2); [discriminate|]. intros H. rewrite !len_cons, (IH H). lia.
  Qed.

  Lemma len_aset_old k v v0 l : NoDup (map fst l) -> alookup k l = Some v0 -> len (aset k v l) = len l.
  Proof.
    induction l as [|[k2 v2] l IH]; cbn [aset alookup map fst]; [discriminate|].
    intros H. inversion H as [|x xs Hn Hd]; subst.
    destruct (fid_eqb k k2) eqn:E.
    - intros _. apply fid_eqb_eq in E. subst k2.
      rewrite aremove_notin by (apply alookup_None_notin; exact Hn). rewrite !len_cons. reflexivity.
    - intros Hl. rewrite !len_cons, (IH Hd Hl). reflexivity.
  Qed.

  Lemma keys_filter (g : fid * V -> bool) l k : In k (map fst (filter g l)) -> In k (map fst l).
  Proof.
    intros H. apply in_map_iff in H. destruct H as (e & He & Hin). apply filter_In in Hin.
    apply in_map_iff. exists e. tauto.
  Qed.

  Lemma NoDup_filter (g : fid * V -> bool) l : NoDup (map fst l) -> NoDup (map fst (filter g l)).
  Proof.
    induction l as [|[k2 v2] l IH]; cbn [filter map fst]; [auto|].
    intros H. inversion H as [|x xs Hn Hd]; subst.
    destruct (g (k2, v2)); [|auto]. cbn [map fst]. constructor; [|auto].
    intros Q. apply keys_filter in Q. tauto.
  Qed.

  Lemma alookup_filter (g : fid * V -> bool) l k : NoDup (map fst l) ->
    alookup k (filter g l) =
      match alookup k l with Some v => if g (k, v) then Some v else None | None => None end.
  Proof.
    induction l as [|[k2 v2] l IH]; cbn [filter alookup map fst]; [reflexivity|].
    intros H. inversion H as [|x xs Hn Hd]; subst. specialize (IH Hd).
    destruct (fid_eqb k k2) eqn:E.
    - apply fid_eqb_eq in E. subst k2. destruct (g (k, v2)); cbn [alookup].
      + rewrite fid_eqb_refl. reflexivity.
      + rewrite IH. apply alookup_None_notin in Hn. rewrite Hn. reflexivity.
    - destruct (g (k2, v2)); cbn [alookup]; [rewrite E|]; exact IH.
  Qed.

  Lemma len_filter_split (g : fid * V -> bool) l :
    len (filter g l) + len (filter (fun e => negb (g e)) l) = len l.
  Proof.
    induction l as [|e l IH]; cbn [filter]; [reflexivity|].
    destruct (g e); cbn [negb]; rewrite !len_cons; lia.
  Qed.
End AssocND.

(* an empty free list costs one allocation *)
Lemma b2n_is_nil {A} (l : list A) : b2n (is_nil l) = 1 - len l.
Proof. destruct l; [reflexivity|]. rewrite len_cons. cbn [is_nil b2n]. lia. Qed.

Lemma pop_len {A} (l : list (list A)) : len (snd (pop l)) = len l - 1.
Proof. destruct l; cbn [pop snd]; [reflexivity|]. rewrite len_cons. lia. Qed.

(* ---------- retain ---------- *)
Lemma retain_is_retain_f p c : retain p c = retain_f p (fun _ t => c <=? t).
Proof. reflexivity. Qed.

Lemma retain_f_view p f id : pool_wf p -> view id (retain_f p f) = retain_view id f (view id p).
Proof.
  intros W. unfold view, retain_f, retain_view. cbn [p_active].
  rewrite (alookup_filter (kept f) (p_active p) id W).
  destruct (alookup id (p_active p)) as [[b t]|]; reflexivity.
Qed.

Lemma retain_f_wf p f : pool_wf p -> pool_wf (retain_f p f).
Proof. intros W. unfold pool_wf, retain_f. cbn [p_active]. apply NoDup_filter. exact W. Qed.

Lemma retain_f_stats p f :
  len (p_active (retain_f p f)) + evicted p f = len (p_active p) /\
  len (p_fdata (retain_f p f)) = len (p_fdata p) + evicted p f /\
  len (p_fsec (retain_f p f)) = len (p_fsec p) + evicted p f.
Proof.
  unfold retain_f, evicted. cbn [p_active p_fdata p_fsec].
  rewrite !len_app, !len_map. pose proof (len_filter_split (kept f) (p_active p)). lia.
Qed.

(* the full statement about retain *)
Lemma retain_release p f : pool_wf p ->
  let p' := retain_f p f in
  pool_wf p' /\
  (forall id, view id p' = retain_view id f (view id p)) /\
  p_active p' = filter (kept f) (p_active p) /\
  p_fdata p' = map (fun e => b_data (fst (snd e))) (filter (fun e => negb (kept f e)) (p_active p)) ++ p_fdata p /\
  p_fsec p' = map (fun e => b_sections (fst (snd e))) (filter (fun e => negb (kept f e)) (p_active p)) ++ p_fsec p /\
  len (p_active p') + evicted p f = len (p_active p) /\
  len (p_fdata p') = len (p_fdata p) + evicted p f /\
  len (p_fsec p') = len (p_fsec p) + evicted p f.
Proof.
  intros W. cbv zeta. split; [apply retain_f_wf; exact W|].
  split; [intros id; apply retain_f_view; exact W|].
  split; [reflexivity|]. split; [reflexivity|]. split; [reflexivity|]. apply retain_f_stats.
Qed.

(* ---------- process: what moves where ---------- *)
Lemma process_wf p k ts : pool_wf p -> pool_wf (snd (process p k ts)).
Proof.
  intros W. unfold process, pool_wf in *.
  destruct (negb (is_fragmenting (k_frag k))); [exact W|].
  destruct (alookup (k_id k) (p_active p)) as [[b t]|].
  - destruct (add b (k_frag k)) as [b'|v|]; try exact W.
    destruct (is_complete b'); cbn [snd p_active]; [apply NoDup_aremove|apply NoDup_aset]; exact W.
  - destruct (pop (p_fdata p)) as [d fd]. destruct (pop (p_fsec p)) as [s fs].
    destruct (add (buf_new (k_ipn k) d s) (k_frag k)) as [b'|v|]; cbn [snd p_active]; try exact W.
    apply NoDup_aset. exact W.
Qed.

(* a delivery that returns a payload: Occupied entry, add succeeded and completed it; exactly
   that entry leaves `active`, its section vector goes to the free list, its data vector is the
   payload handed to the caller, the data free list is untouched *)
Lemma release_complete p k ts ipn v4 pl p' : pool_wf p -> process p k ts = (PDone ipn v4 pl, p') ->
  exists b t b',
    view (k_id k) p = Some (b, t) /\ add b (k_frag k) = AddOk b' /\ is_complete b' = true /\
    ipn = k_ipn k /\ v4 = k_v4 k /\ pl = b_data b' /\
    p_active p' = aremove (k_id k) (p_active p) /\
    view (k_id k) p' = None /\
    (forall id', id' <> k_id k -> view id' p' = view id' p) /\
    len (p_active p') + 1 = len (p_active p) /\
    p_fdata p' = p_fdata p /\
    p_fsec p' = b_sections b' :: p_fsec p.
Proof.
  intros W. unfold process, view.
  destruct (negb (is_fragmenting (k_frag k))); [discriminate|].
  destruct (alookup (k_id k) (p_active p)) as [[b t]|] eqn:El.
  - destruct (add b (k_frag k)) as [b'|v|] eqn:Ea; try discriminate.
    destruct (is_complete b') eqn:C; [|discriminate].
    intros H. inversion H; subst. exists b, t, b'. cbn [p_active p_fdata p_fsec].
    split; [reflexivity|]. split; [exact Ea|]. split; [exact C|].
    repeat (split; [reflexivity|]).
    split; [apply alookup_aremove_same|].
    split; [intros id' Hn; apply alookup_aremove_other; congruence|].
    split; [apply (len_aremove _ (b, t)); assumption|]. split; reflexivity.
  - destruct (pop (p_fdata p)) as [d fd]. destruct (pop (p_fsec p)) as [s fs].
    destruct (add (buf_new (k_ipn k) d s) (k_frag k)) as [b'|v|]; discriminate.
Qed.

(* a failing FIRST add: no entry is created and both vectors taken for it (popped or freshly
   allocated), cleared, are pushed to the free lists *)
Lemma release_first_err p k ts v p' : view (k_id k) p = None -> process p k ts = (PErr v, p') ->
  p_active p' = p_active p /\
  p_fdata p' = [] :: tl (p_fdata p) /\
  p_fsec p' = [] :: tl (p_fsec p) /\
  len (p_fdata p') = N.max 1 (len (p_fdata p)) /\
  len (p_fsec p') = N.max 1 (len (p_fsec p)).
Proof.
  unfold process, view. intros El.
  destruct (negb (is_fragmenting (k_frag k))); [discriminate|]. rewrite El.
  pose proof (add_never_panics (buf_new (k_ipn k) [] []) (k_frag k)) as NP.
  destruct (p_fdata p) as [|d0 fd0]; destruct (p_fsec p) as [|s0 fs0]; cbn [pop tl];
    match goal with |- context [add (buf_new ?i ?d ?s) _] => change (buf_new i d s) with (buf_new i [] []) end;
    destruct (add (buf_new (k_ipn k) [] []) (k_frag k)) as [b'|v'|]; try discriminate; try congruence;
    intros H; inversion H; subst; cbn [p_active p_fdata p_fsec buf_new b_data b_sections];
    rewrite ?len_cons, ?len_nil; repeat split; try reflexivity; lia.
Qed.

(* an error on an existing entry leaves the whole pool as it was *)
Lemma release_err_occupied p k ts v p' b t : view (k_id k) p = Some (b, t) ->
  process p k ts = (PErr v, p') -> p' = p.
Proof.
  unfold process, view. intros El.
  destruct (negb (is_fragmenting (k_frag k))); [discriminate|]. rewrite El.
  destruct (add b (k_frag k)) as [b'|v'|]; [destruct (is_complete b'); discriminate| |]; congruence.
Qed.

Lemma vacant_false_nf p k : is_fragmenting (k_frag k) = false -> vacant p k = false.
Proof. unfold vacant. intros H. rewrite H. reflexivity. Qed.

(* the three numbers after any delivery *)
Lemma process_stats p k ts : pool_wf p ->
  delivery_stats p k (fst (process p k ts)) (snd (process p k ts)).
Proof.
  intros W. unfold delivery_stats, stats, process, vacant.
  destruct (is_fragmenting (k_frag k)); cbn [negb andb fst snd]; [|auto].
  destruct (alookup (k_id k) (p_active p)) as [[b t]|] eqn:El; cbn [is_none].
  - destruct (add b (k_frag k)) as [b'|v|]; cbn [fst snd]; auto.
    destruct (is_complete b'); cbn [fst snd p_active p_fdata p_fsec].
    + split; [reflexivity|]. split; [apply (len_aremove _ (b, t)); assumption|].
      split; [reflexivity|]. rewrite len_cons. lia.
    + split; [apply (len_aset_old _ _ (b, t)); assumption|]. auto.
  - pose proof (pop_len (p_fdata p)) as Ld. pose proof (pop_len (p_fsec p)) as Ls.
    destruct (pop (p_fdata p)) as [d fd]. destruct (pop (p_fsec p)) as [s fs]. cbn [snd] in Ld, Ls.
    pose proof (add_never_panics (buf_new (k_ipn k) d s) (k_frag k)) as NP.
    destruct (add (buf_new (k_ipn k) d s) (k_frag k)) as [b'|v|]; [| |congruence];
      cbn [fst snd p_active p_fdata p_fsec].
    + split; [apply len_aset_new; exact El|]. split; assumption.
    + split; [reflexivity|]. rewrite !len_cons. lia.
Qed.

(* ---------- histories: well-formedness and the ledger ---------- *)
Lemma rstep_wf p o : pool_wf p -> pool_wf (snd (rstep p o)).
Proof.
  intros W. destruct o as [k ts|pl|f]; cbn [rstep].
  - pose proof (process_wf p k ts W) as H. destruct (process p k ts). exact H.
  - exact W.
  - apply retain_f_wf. exact W.
Qed.

Lemma rrun_wf : forall ops p, pool_wf p -> pool_wf (rrun p ops).
Proof.
  induction ops as [|o ops IH]; intros p W; [exact W|].
  unfold rrun. cbn [fold_left]. apply IH, rstep_wf, W.
Qed.

Lemma pool_new_wf : pool_wf pool_new.
Proof. constructor. Qed.

Lemma rstep_deliver_snd p k ts : snd (rstep p (RDeliver k ts)) = snd (process p k ts).
Proof. cbn [rstep]. destruct (process p k ts). reflexivity. Qed.

(* one step, per free list: what the pool holds changes exactly by what the ledger records *)
Lemma lstep_delta p l o : pool_wf p ->
  let p' := snd (rstep p o) in
  let l' := lstep p l o in
  len (p_active p') + len (p_fdata p') + l_held l' + l_new_data l + l_foreign l =
    len (p_active p) + len (p_fdata p) + l_held l + l_new_data l' + l_foreign l' /\
  len (p_active p') + len (p_fsec p') + l_new_sec l = len (p_active p) + len (p_fsec p) + l_new_sec l'.
Proof.
  intros W. cbv zeta. destruct o as [k ts|pl|f].
  - rewrite rstep_deliver_snd. pose proof (process_stats p k ts W) as S.
    unfold delivery_stats, stats in S. unfold lstep. cbn [l_held l_new_data l_new_sec l_foreign].
    destruct (fst (process p k ts)); cbn [is_done b2n].
    + destruct (vacant p k); cbn [andb b2n]; rewrite ?b2n_is_nil; lia.
    + destruct S as (V & S). rewrite V. cbn [andb b2n]. lia.
    + destruct S as (S1 & S). destruct (vacant p k); cbn [andb b2n]; rewrite ?b2n_is_nil; lia.
  - unfold lstep. cbn [rstep snd return_buf p_active p_fdata p_fsec].
    rewrite len_cons. destruct (N.eqb_spec (l_held l) 0) as [E|E];
      cbn [l_held l_new_data l_new_sec l_foreign]; lia.
  - cbn [rstep snd lstep]. pose proof (retain_f_stats p f). lia.
Qed.

Lemma lstep_balanced p l o : pool_wf p -> balanced p l -> balanced (snd (rstep p o)) (lstep p l o).
Proof. intros W [B1 B2]. pose proof (lstep_delta p l o W) as [D1 D2]. unfold balanced. lia. Qed.

Lemma lrun_balanced : forall ops p l, pool_wf p -> balanced p l ->
  pool_wf (fst (lrun p l ops)) /\ balanced (fst (lrun p l ops)) (snd (lrun p l ops)).
Proof.
  induction ops as [|o ops IH]; intros p l W B; cbn [lrun fst snd]; [auto|].
  apply IH; [apply rstep_wf; exact W|apply lstep_balanced; assumption].
Qed.

Lemma lrun_fst : forall ops p l, fst (lrun p l ops) = rrun p ops.
Proof.
  induction ops as [|o ops IH]; intros p l; cbn [lrun]; [reflexivity|].
  rewrite IH. unfold rrun. reflexivity.
Qed.

Lemma balanced0 : balanced pool_new ledger0.
Proof. split; reflexivity. Qed.

(* conservation for every history from the empty pool *)
Lemma conservation ops :
  pool_wf (rrun pool_new ops) /\ balanced (rrun pool_new ops) (snd (lrun pool_new ledger0 ops)).
Proof.
  destruct (lrun_balanced ops pool_new ledger0 pool_new_wf balanced0) as [W B].
  rewrite lrun_fst in W, B. auto.
Qed.

(* where new vectors come from: the pool allocates only on a Vacant entry whose free list is empty *)
Lemma alloc_only_when_empty p l o :
  (l_new_data (lstep p l o) <> l_new_data l ->
     exists k ts, o = RDeliver k ts /\ vacant p k = true /\ p_fdata p = [] /\
                  l_new_data (lstep p l o) = l_new_data l + 1) /\
  (l_new_sec (lstep p l o) <> l_new_sec l ->
     exists k ts, o = RDeliver k ts /\ vacant p k = true /\ p_fsec p = [] /\
                  l_new_sec (lstep p l o) = l_new_sec l + 1) /\
  (l_foreign (lstep p l o) <> l_foreign l ->
     exists pl, o = RReturn pl /\ l_held l = 0 /\ l_foreign (lstep p l o) = l_foreign l + 1).
Proof.
  destruct o as [k ts|pl|f]; cbn [lstep l_new_data l_new_sec l_foreign].
  - split; [|split]; [| |congruence]; intros H.
    + destruct (vacant p k) eqn:V; cbn [andb b2n] in *; [|lia].
      destruct (p_fdata p) eqn:L; cbn [is_nil b2n] in *; [|lia]. exists k, ts. repeat split; auto.
    + destruct (vacant p k) eqn:V; cbn [andb b2n] in *; [|lia].
      destruct (p_fsec p) eqn:L; cbn [is_nil b2n] in *; [|lia]. exists k, ts. repeat split; auto.
  - destruct (N.eqb_spec (l_held l) 0) as [E|E]; cbn [l_new_data l_new_sec l_foreign];
      split; [congruence| |congruence|]; split; try congruence.
    intros _. exists pl. auto.
  - split; [congruence|]. split; congruence.
Qed.

(* the number of vectors in existence changes exactly by the allocations *)
Lemma total_step p l o : pool_wf p ->
  total (snd (rstep p o)) (lstep p l o) + l_new_data l + l_new_sec l + l_foreign l =
  total p l + l_new_data (lstep p l o) + l_new_sec (lstep p l o) + l_foreign (lstep p l o).
Proof.
  intros W. pose proof (lstep_delta p l o W) as [D1 D2]. unfold total. lia.
Qed.

(* ---------- the contents of the free lists never matter ---------- *)
Lemma pool_sim_stats p q : pool_sim p q -> stats p = stats q.
Proof. intros (A & D & S). unfold stats. rewrite A, D, S. reflexivity. Qed.

Lemma process_sim p q k ts : pool_sim p q ->
  fst (process p k ts) = fst (process q k ts) /\ pool_sim (snd (process p k ts)) (snd (process q k ts)).
Proof.
  intros (A & D & S). unfold process. rewrite <- A.
  destruct (negb (is_fragmenting (k_frag k))); [cbn [fst snd]; unfold pool_sim; auto|].
  destruct (alookup (k_id k) (p_active p)) as [[b t]|].
  - destruct (add b (k_frag k)) as [b'|v|]; try (cbn [fst snd]; unfold pool_sim; auto).
    destruct (is_complete b'); cbn [fst snd]; unfold pool_sim; cbn [p_active p_fdata p_fsec];
      rewrite ?len_cons, ?D, ?S; auto.
  - pose proof (pop_len (p_fdata p)) as L1. pose proof (pop_len (p_fsec p)) as L2.
    pose proof (pop_len (p_fdata q)) as L3. pose proof (pop_len (p_fsec q)) as L4.
    destruct (pop (p_fdata p)) as [d fd]. destruct (pop (p_fsec p)) as [s fs].
    destruct (pop (p_fdata q)) as [d' fd']. destruct (pop (p_fsec q)) as [s' fs']. cbn [snd] in *.
    change (buf_new (k_ipn k) d s) with (buf_new (k_ipn k) [] []).
    change (buf_new (k_ipn k) d' s') with (buf_new (k_ipn k) [] []).
    destruct (add (buf_new (k_ipn k) [] []) (k_frag k)) as [b'|v|]; cbn [fst snd]; unfold pool_sim;
      cbn [p_active p_fdata p_fsec]; rewrite <- ?A, ?len_cons; repeat split; try reflexivity; try lia.
Qed.

Lemma retain_f_sim p q f g : pool_sim p q -> (forall id t, f id t = g id t) ->
  pool_sim (retain_f p f) (retain_f q g).
Proof.
  intros (A & D & S) E. unfold pool_sim, retain_f. cbn [p_active p_fdata p_fsec]. rewrite <- A.
  assert (Ek : forall e, kept f e = kept g e) by (intros e; unfold kept; apply E).
  rewrite (filter_ext _ _ Ek).
  rewrite (filter_ext (fun e => negb (kept f e)) (fun e => negb (kept g e))) by (intros e; rewrite Ek; reflexivity).
  rewrite !len_app, !len_map. repeat split; lia.
Qed.

Lemma rstep_sim p q o1 o2 : pool_sim p q -> rop_sim o1 o2 ->
  fst (rstep p o1) = fst (rstep q o2) /\ pool_sim (snd (rstep p o1)) (snd (rstep q o2)).
Proof.
  intros Hs Ho. destruct Ho as [k ts|pl1 pl2|f g E]; cbn [rstep].
  - destruct (process_sim p q k ts Hs) as [H1 H2].
    destruct (process p k ts) as [r1 p1]. destruct (process q k ts) as [r2 p2]. cbn [fst snd] in *.
    subst. auto.
  - cbn [fst snd]. split; [reflexivity|]. destruct Hs as (A & D & S).
    unfold pool_sim, return_buf. cbn [p_active p_fdata p_fsec]. rewrite !len_cons. repeat split; auto. lia.
  - cbn [fst snd]. split; [reflexivity|]. apply retain_f_sim; assumption.
Qed.

Lemma free_list_contents_irrelevant : forall ops1 ops2 p q, pool_sim p q -> Forall2 rop_sim ops1 ops2 ->
  rtrace p ops1 = rtrace q ops2 /\ stats_trace p ops1 = stats_trace q ops2 /\
  pool_sim (rrun p ops1) (rrun q ops2).
Proof.
  induction ops1 as [|o1 ops1 IH]; intros ops2 p q Hs HF; inversion HF as [|x y xs ys Ho HF']; subst.
  - cbn. auto.
  - destruct (rstep_sim p q o1 y Hs Ho) as [H1 H2].
    destruct (IH ys _ _ H2 HF') as (I1 & I2 & I3).
    cbn [rtrace stats_trace]. unfold rrun. cbn [fold_left]. fold (rrun (snd (rstep p o1)) ops1).
    fold (rrun (snd (rstep q y)) ys).
    rewrite (pool_sim_stats _ _ H2), I2.
    destruct (rstep p o1) as [r1 p1]. destruct (rstep q y) as [r2 p2]. cbn [fst snd] in *. subst r2.
    rewrite I1. auto.
Qed.

(* ---------- one stream inside a history with retain ---------- *)
Definition sev_step (id : fid) (s : option (buf * N)) (e : sev) : option pres * option (buf * N) :=
  match e with
  | SDeliver k ts => let '(r, s') := stream_step s k ts in (Some r, s')
  | SRetain f => (None, retain_view id f s)
  end.

Fixpoint sev_trace (id : fid) (s : option (buf * N)) (evs : list sev) : list pres :=
  match evs with
  | [] => []
  | e :: r =>
      let '(res, s') := sev_step id s e in
      match res with Some x => x :: sev_trace id s' r | None => sev_trace id s' r end
  end.

Definition sev_run (id : fid) (s : option (buf * N)) (evs : list sev) : option (buf * N) :=
  fold_left (fun s e => snd (sev_step id s e)) evs s.

Lemma results_for_cons id x tr :
  results_for id (x :: tr) = if fid_eqb (fst x) id then snd x :: results_for id tr else results_for id tr.
Proof. unfold results_for. cbn [filter]. destruct (fid_eqb (fst x) id); reflexivity. Qed.

Lemma results_for_app id a b : results_for id (a ++ b) = results_for id a ++ results_for id b.
Proof. unfold results_for. rewrite filter_app, map_app. reflexivity. Qed.

Lemma isolation_retain : forall ops p id, pool_wf p ->
  results_for id (rtrace p ops) = sev_trace id (view id p) (events_for id ops) /\
  view id (rrun p ops) = sev_run id (view id p) (events_for id ops).
Proof.
  induction ops as [|[k ts|pl|f] ops IH]; intros p id W; cbn [rtrace events_for rstep].
  - cbn. auto.
  - destruct (process_view p k ts) as (H1 & H2 & H3).
    pose proof (process_wf p k ts W) as W'.
    unfold rrun. cbn [fold_left rstep].
    destruct (process p k ts) as [res p'] eqn:Ep. cbn [fst snd] in *. fold (rrun p' ops).
    rewrite results_for_cons. cbn [fst snd]. destruct (fid_eqb (k_id k) id) eqn:E.
    + apply fid_eqb_eq in E. subst id. cbn [sev_trace sev_step]. unfold sev_run. cbn [fold_left sev_step].
      destruct (stream_step (view (k_id k) p) k ts) as [res' s'] eqn:Es. cbn [fst snd] in *. subst res'.
      rewrite <- H2. destruct (IH p' (k_id k) W') as [I1 I2]. rewrite I1. split; [reflexivity|exact I2].
    + destruct (IH p' id W') as [I1 I2]. rewrite I1, I2, H3; [auto|].
      intros Q. subst id. rewrite fid_eqb_refl in E. discriminate.
  - unfold rrun. cbn [fold_left rstep snd]. apply (IH (return_buf p pl) id). exact W.
  - unfold rrun. cbn [fold_left rstep snd]. fold (rrun (retain_f p f) ops).
    destruct (IH (retain_f p f) id (retain_f_wf p f W)) as [I1 I2].
    cbn [sev_trace sev_step]. unfold sev_run. cbn [fold_left sev_step snd].
    rewrite I1, I2, (retain_f_view p f id W). auto.
Qed.

(* retain calls that keep the observed stream do not change its answers *)
Fixpoint keeps (id : fid) (s : option (buf * N)) (evs : list sev) : Prop :=
  match evs with
  | [] => True
  | SDeliver k ts :: r => keeps id (snd (stream_step s k ts)) r
  | SRetain f :: r => retain_view id f s = s /\ keeps id s r
  end.

Lemma keeps_trace : forall evs id s, keeps id s evs ->
  sev_trace id s evs = stream_trace s (deliveries evs).
Proof.
  induction evs as [|[k ts|f] evs IH]; intros id s K; cbn [sev_trace sev_step deliveries stream_trace keeps] in *.
  - reflexivity.
  - destruct (stream_step s k ts) as [r s']. cbn [snd] in K. rewrite (IH id s' K). reflexivity.
  - destruct K as [K1 K2]. rewrite K1. apply IH. exact K2.
Qed.

Lemma keeps_always : forall evs id s,
  (forall f, In (SRetain f) evs -> forall t, f id t = true) -> keeps id s evs.
Proof.
  induction evs as [|[k ts|f] evs IH]; intros id s H; cbn [keeps]; [exact I| |].
  - apply IH. intros f Hf. apply H. right. exact Hf.
  - split.
    + destruct s as [[b t]|]; cbn [retain_view]; [|reflexivity]. rewrite (H f); [reflexivity|left; reflexivity].
    + apply IH. intros g Hg. apply H. right. exact Hg.
Qed.

Lemma events_for_retain id f : forall ops, In (SRetain f) (events_for id ops) -> In (RRetain f) ops.
Proof.
  induction ops as [|[k ts|pl|g] ops IH]; cbn [events_for]; [tauto| | |].
  - destruct (fid_eqb (k_id k) id); cbn [In]; intros H.
    + destruct H as [H|H]; [discriminate|]. right. auto.
    + right. auto.
  - intros H. right. auto.
  - cbn [In]. intros [H|H]; [left; congruence|right; auto].
Qed.

Lemma isolation_keep ops p id : pool_wf p -> keeps id (view id p) (events_for id ops) ->
  results_for id (rtrace p ops) = stream_trace (view id p) (deliveries (events_for id ops)).
Proof.
  intros W K. destruct (isolation_retain ops p id W) as [H _]. rewrite H. apply keeps_trace. exact K.
Qed.

Lemma isolation_keep_always ops p id : pool_wf p ->
  (forall f, In (RRetain f) ops -> forall t, f id t = true) ->
  results_for id (rtrace p ops) = stream_trace (view id p) (deliveries (events_for id ops)).
Proof.
  intros W H. apply isolation_keep; [exact W|]. apply keeps_always.
  intros f Hf. apply H. apply (events_for_retain id). exact Hf.
Qed.

(* histories without retain are the histories of Proofs.v *)
Definition rop_of (o : pool_op) : rop :=
  match o with ODeliver k ts => RDeliver k ts | OReturn pl => RReturn pl end.

Lemma rtrace_embed : forall ops p, rtrace p (map rop_of ops) = pool_trace p ops.
Proof.
  induction ops as [|[k ts|pl] ops IH]; intros p; cbn [map rop_of rtrace rstep pool_trace]; [reflexivity| |].
  - destruct (process p k ts) as [r p']. rewrite IH. reflexivity.
  - apply IH.
Qed.

Lemma deliveries_embed id : forall ops, deliveries (events_for id (map rop_of ops)) = for_id id ops.
Proof.
  induction ops as [|[k ts|pl] ops IH]; cbn [map rop_of events_for for_id]; [reflexivity| |].
  - destruct (fid_eqb (k_id k) id); cbn [deliveries]; rewrite IH; reflexivity.
  - exact IH.
Qed.

(* ---------- eviction of a partially received stream ---------- *)
Lemma sev_trace_app : forall a b id s,
  sev_trace id s (a ++ b) = sev_trace id s a ++ sev_trace id (sev_run id s a) b.
Proof.
  induction a as [|e a IH]; intros b id s; [reflexivity|].
  cbn [app sev_trace]. unfold sev_run. cbn [fold_left]. fold (sev_run id (snd (sev_step id s e)) a).
  destruct (sev_step id s e) as [[x|] s']; cbn [snd]; rewrite IH; reflexivity.
Qed.

Lemma rtrace_app : forall a b p, rtrace p (a ++ b) = rtrace p a ++ rtrace (rrun p a) b.
Proof.
  induction a as [|o a IH]; intros b p; [reflexivity|].
  cbn [app rtrace]. unfold rrun. cbn [fold_left]. fold (rrun (snd (rstep p o)) a).
  destruct (rstep p o) as [[x|] p']; cbn [snd]; rewrite IH; reflexivity.
Qed.

(* after a retain that evicts stream id (or finds nothing to evict), the stream's later answers
   are those of a stream that starts from nothing: they are a function of the later events
   alone -- nothing of what was received before the eviction can show up *)
Lemma evict_restart ops1 f ops2 p id : pool_wf p ->
  retain_view id f (view id (rrun p ops1)) = None ->
  results_for id (rtrace p (ops1 ++ RRetain f :: ops2)) =
    results_for id (rtrace p ops1) ++ sev_trace id None (events_for id ops2).
Proof.
  intros W E. pose proof (rrun_wf ops1 p W) as W1.
  rewrite rtrace_app, results_for_app. cbn [rtrace rstep].
  destruct (isolation_retain ops2 (retain_f (rrun p ops1) f) id (retain_f_wf _ f W1)) as [H _].
  now rewrite H, (retain_f_view _ f id W1), E.
Qed.

Lemma evict_partial ops1 f ops2 p id b t : pool_wf p ->
  view id (rrun p ops1) = Some (b, t) -> f id t = false ->
  results_for id (rtrace p (ops1 ++ RRetain f :: ops2)) =
    results_for id (rtrace p ops1) ++ sev_trace id None (events_for id ops2).
Proof.
  intros W V F. apply evict_restart; [exact W|]. rewrite V. cbn [retain_view]. rewrite F. reflexivity.
Qed.

(* two pools, two different pasts of the stream, both evicted: the same future *)
Lemma evict_no_leak ops1 ops1' f f' ops2 p p' id : pool_wf p -> pool_wf p' ->
  retain_view id f (view id (rrun p ops1)) = None ->
  retain_view id f' (view id (rrun p' ops1')) = None ->
  skipn (length (results_for id (rtrace p ops1))) (results_for id (rtrace p (ops1 ++ RRetain f :: ops2))) =
  skipn (length (results_for id (rtrace p' ops1'))) (results_for id (rtrace p' (ops1' ++ RRetain f' :: ops2))).
Proof.
  intros W W' E E'.
  rewrite (evict_restart ops1 f ops2 p id W E), (evict_restart ops1' f' ops2 p' id W' E'). rewrite !skipn_app, !skipn_all, !Nat.sub_diag. reflexivity.
Qed.

(* the rest of an evicted datagram alone never completes it: with C11_pool_never_early *)
Lemma evicted_rest_never_completes P : len P <= 65535 -> forall ops1 f ops2 p id, pool_wf p ->
  retain_view id f (view id (rrun p ops1)) = None ->
  (forall g, In (RRetain g) ops2 -> forall t, g id t = true) ->
  let ks := deliveries (events_for id ops2) in
  (forall kt, In kt ks -> pkt_ok P kt) ->
  (forall j, (j <= length ks)%nat -> ~ Covered P (firstn j (frags_of ks))) ->
  results_for id (rtrace p (ops1 ++ RRetain f :: ops2)) =
    results_for id (rtrace p ops1) ++ map (fun _ => PNone) ks.
Proof.
  intros HP ops1 f ops2 p id W E K ks Hok Hnc.
  rewrite (evict_restart ops1 f ops2 p id W E). f_equal.
  rewrite keeps_trace.
  - apply (pool_never_early P HP); assumption.
  - apply keeps_always. intros g Hg. apply K. apply (events_for_retain id). exact Hg.
Qed.

(* ---------- no stale byte, no panic: histories with retain ---------- *)
Lemma retain_view_sinv id f s : sinv s -> sinv (retain_view id f s).
Proof. destruct s as [[b t]|]; cbn [retain_view]; [|auto]. destruct (f id t); cbn [sinv]; auto. Qed.

Lemma sev_trace_ok : forall evs id s, sinv s -> Forall res_ok (sev_trace id s evs).
Proof.
  induction evs as [|[k ts|f] evs IH]; intros id s I; cbn [sev_trace sev_step]; [constructor| |].
  - destruct (stream_step_ok s k ts I) as [H1 H2].
    destruct (stream_step s k ts) as [res s']. cbn [fst snd] in *. constructor; [exact H1|apply IH, H2].
  - apply IH, retain_view_sinv, I.
Qed.

Lemma pool_no_leak_retain ops id : Forall res_ok (results_for id (rtrace pool_new ops)).
Proof.
  destruct (isolation_retain ops pool_new id pool_new_wf) as [H _]. rewrite H.
  apply sev_trace_ok. exact Logic.I.
Qed.

(* cleared before use: the entry a first fragment creates is built from empty vectors, whatever
   the free lists contained *)
Lemma first_fragment_clean p k ts : is_fragmenting (k_frag k) = true -> view (k_id k) p = None ->
  view (k_id k) (snd (process p k ts)) =
    match add (mkBuf (k_ipn k) [] [] None) (k_frag k) with
    | AddOk b' => Some (b', ts)
    | _ => None
    end.
Proof.
  intros Hf Hv. destruct (process_view p k ts) as (_ & H2 & _). rewrite H2, Hv.
  unfold stream_step. rewrite Hf. cbn [negb]. unfold buf_new.
  destruct (add (mkBuf (k_ipn k) [] [] None) (k_frag k)); reflexivity.
Qed.

Lemma embed_both ops p :
  rtrace p (map rop_of ops) = pool_trace p ops /\
  forall id, deliveries (events_for id (map rop_of ops)) = for_id id ops.
Proof. split; [apply rtrace_embed|intros id; apply deliveries_embed]. Qed.
