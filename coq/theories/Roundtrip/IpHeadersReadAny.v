(* IpHeaders::read of a written well-formed value, whatever follows the headers in the reader:
   both versions, without the hypothesis `iph_read_room` of iph_dec_enc (for IPv6 that is
   IpHeadersProofs.iph_read_any_v6). *)
From EP Require Import Base.Bytes Roundtrip.Common Roundtrip.CommonProofs Roundtrip.LinkNetLemmas.
From EP Require Import Checksum.Model.
From EP Require Import Roundtrip.Ipv4 Roundtrip.Ipv4Proofs Roundtrip.Ipv6 Roundtrip.Ipv6Proofs Roundtrip.Auth Roundtrip.Exts4
  Roundtrip.IpHeaders Roundtrip.IpHeadersProofs.
From EP Require IoFault.Spec IoFault.Model IoFault.Proofs ExtChain.Spec ExtChain.Model ExtChain.Proofs
  ExtChain.ReadModel ExtChain.ReadView ExtChain.ReadProofs Roundtrip.Exts6Proofs.
From Coq Require Import ZArith Lia ZifyN ZifyBool.
Local Open Scope N_scope.
Module XM := EP.ExtChain.Model.
Module XS := EP.ExtChain.Spec.
Module XR := EP.ExtChain.ReadModel.
Module XV := EP.ExtChain.ReadView.
Module XRP := EP.ExtChain.ReadProofs.
Module IOM := EP.IoFault.Model.
Module IOS := EP.IoFault.Spec.

(* both versions: no hypothesis on what follows the headers in the reader *)
Theorem iph_read_any en h : iph_wf h = true ->
  exists w, iph_write en h = (w, XM.Ok tt) /\ len w = iph_header_len h
    /\ (forall rest, bytes_ok rest -> iph_read (w ++ rest) = Ok (iph_written en h, iph_final h, rest)).
Proof.
  intros WF. destruct h as [hd e|hd e].
  - destruct (iph_dec_enc en (IpV4 hd e) WF) as (w & A & B & _ & D). exists w. repeat split; try assumption.
    intros rest BR. apply D; [exact BR|exact I].
  - exact (iph_read_any_v6 en hd e WF).
Qed.

(* non-vacuity: IPv6 + hop-by-hop + fragment, payload_length 18, and the reader ends right behind the
   extension headers / one byte later: outside iph_read_room, accepted *)
Example iph_read_any_ex :
  let h := IpV6 {| i6_traffic_class := 0; i6_flow_label := 0; i6_payload_length := 18; i6_next_header := 0;
                   i6_hop_limit := 64; i6_source := repeat 1 16; i6_destination := repeat 2 16 |}
                (XM.mkExts6 (Some (XM.mkRaw 44 0 [1; 2; 3; 4; 5; 6])) None None (Some (XM.mkFrag 17 1 true 1)) None) in
  iph_wf h = true /\ ~ iph_read_room h [] /\ ~ iph_read_room h [9] /\
  iph_read (fst (iph_write LE h)) = Ok (h, 17, []) /\ iph_read (fst (iph_write LE h) ++ [9]) = Ok (h, 17, [9]).
Proof.
  cbv zeta. split; [vm_compute; reflexivity|].
  split; [intros H; vm_compute in H; apply H; reflexivity|].
  split; [intros H; vm_compute in H; apply H; reflexivity|].
  split; vm_compute; reflexivity.
Qed.
