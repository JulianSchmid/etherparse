(* Roundtrip/UdpProofs.v -- C08 for UdpHeader *)
From EP Require Import Base.Bytes Roundtrip.Common Roundtrip.CommonProofs Roundtrip.Framed Roundtrip.Udp.
From Coq Require Import ZArith Lia ZifyN.
Local Open Scope N_scope.

Lemma wf_udp_facts h : wf_udp h = true ->
  udp_source_port h < 65536 /\ udp_destination_port h < 65536 /\ udp_length h < 65536 /\ udp_checksum h < 65536.
Proof. unfold wf_udp. intros W. bsplit W. repeat split; assumption. Qed.

Lemma len_udp_to_bytes h : len (udp_to_bytes h) = 8.
Proof. reflexivity. Qed.

Theorem udp_ser_agree h out :
  udp_write out h = out ++ udp_to_bytes h /\ len (udp_to_bytes h) = udp_header_len h.
Proof. split; reflexivity. Qed.

Lemma udp_to_header_8 b0 b1 b2 b3 b4 b5 b6 b7 :
  udp_to_header [b0; b1; b2; b3; b4; b5; b6; b7] =
  Ok {| udp_source_port := be16 b0 b1; udp_destination_port := be16 b2 b3;
        udp_length := be16 b4 b5; udp_checksum := be16 b6 b7 |}.
Proof. reflexivity. Qed.

Lemma udp_to_header_enc h : wf_udp h = true -> udp_to_header (udp_to_bytes h) = Ok h.
Proof.
  intros W. destruct (wf_udp_facts h W) as (R1 & R2 & R3 & R4).
  unfold udp_to_bytes, u16_to_be. cbn [app]. rewrite udp_to_header_8.
  rewrite !u16_be_roundtrip by assumption. destruct h. reflexivity.
Qed.

Lemma udp_from_bytes_enc h : wf_udp h = true -> udp_from_bytes (udp_to_bytes h) = Ok h.
Proof.
  intros W. destruct (wf_udp_facts h W) as (R1 & R2 & R3 & R4).
  unfold udp_to_bytes, u16_to_be. cbn [app]. unfold udp_from_bytes.
  rewrite !u16_be_roundtrip by assumption. destruct h. reflexivity.
Qed.

(* no reserved bits: any 8 bytes decode to a well-formed header that re-encodes to exactly them *)
Lemma udp_to_header_inv hs h : bytes_ok hs -> len hs = 8 -> udp_to_header hs = Ok h ->
  wf_udp h = true /\ udp_to_bytes h = hs.
Proof.
  intros OK L. revert OK h. pattern hs. apply (all_lists_len 8); [|exact L]. cbn [all_lists].
  intros b0 b1 b2 b3 b4 b5 b6 b7 OK h H. rewrite udp_to_header_8 in H. apply Ok_inj in H. subst h.
  bytes_ok_split OK. split.
  - unfold wf_udp. cbn [udp_source_port udp_destination_port udp_length udp_checksum].
    pose proof (be16_bound b0 b1 B B0) as X0. pose proof (be16_bound b2 b3 B1 B2) as X1.
    pose proof (be16_bound b4 b5 B3 B4) as X2. pose proof (be16_bound b6 b7 B5 B6) as X3.
    apply N.ltb_lt in X0, X1, X2, X3. rewrite X0, X1, X2, X3. reflexivity.
  - unfold udp_to_bytes. cbn [udp_source_port udp_destination_port udp_length udp_checksum].
    rewrite !u16_to_be_be16 by assumption. reflexivity.
Qed.

Theorem udp_dec_enc h rest : wf_udp h = true ->
  udp_from_slice (udp_to_bytes h ++ rest) = Ok (h, rest) /\ udp_read (udp_to_bytes h ++ rest) = Ok (h, rest).
Proof.
  intros W. split.
  - apply (framed_app 8 udp_to_header); [reflexivity|exact (udp_to_header_enc h W)].
  - unfold udp_read. rewrite read_exact_app, (udp_from_bytes_enc h W) by reflexivity. reflexivity.
Qed.

Theorem udp_enc_dec bs h rest : bytes_ok bs -> udp_from_slice bs = Ok (h, rest) ->
  wf_udp h = true /\ bs = take 8 bs ++ rest
  /\ udp_to_bytes h = take 8 bs
  /\ agree udp_keep_mask (udp_to_bytes h) (take 8 bs)
  /\ udp_from_slice (udp_to_bytes h) = Ok (h, [])
  /\ udp_read bs = Ok (h, rest).
Proof.
  intros OK H. apply (framed_inv 8 udp_to_header) in H. destruct H as (L & H & ->).
  assert (L8 : len (take 8 bs) = 8) by (rewrite len_take; lia).
  destruct (udp_to_header_inv (take 8 bs) h (bytes_ok_take _ _ OK) L8 H) as [W E].
  split; [exact W|]. split; [symmetry; apply take_drop|]. split; [exact E|]. split.
  - rewrite E. unfold udp_keep_mask. apply agree_of_masked; [rewrite len_ones; symmetry; exact L8|].
    symmetry. rewrite <- L8 at 1. apply masked_ones, bytes_ok_take, OK.
  - split.
    + pose proof (udp_dec_enc h [] W) as [D _]. rewrite app_nil_r in D. exact D.
    + rewrite <- (take_drop 8 bs) at 1. rewrite <- E. apply (udp_dec_enc h _ W).
Qed.

(* RFC 768: source port, destination port, length, checksum, 16 bits each, big endian *)
Theorem udp_spec h : wf_udp h = true ->
  udp_to_bytes h = udp_layout (udp_source_port h) (udp_destination_port h) (udp_length h) (udp_checksum h).
Proof.
  intros W. destruct (wf_udp_facts h W) as (R1 & R2 & R3 & R4).
  unfold udp_to_bytes, udp_layout, u16_to_be. cbn [app].
  rewrite !(N.mod_small (_ / 256) 256) by (apply N.div_lt_upper_bound; lia). reflexivity.
Qed.
