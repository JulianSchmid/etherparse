(* Roundtrip/SllProofs.v -- C08 for LinuxSllHeader *)
From EP Require Import Base.Bytes Roundtrip.Common Roundtrip.CommonProofs Roundtrip.LinkNetLemmas Roundtrip.Sll.
From Coq Require Import ZArith Lia ZifyN.
Local Open Scope N_scope.

Lemma sll_nonstd_some v n : sll_nonstd_try_from v = Some n -> n = v.
Proof.
  unfold sll_nonstd_try_from. intros H.
  repeat match type of H with (if ?c then _ else _) = _ => destruct c end; congruence.
Qed.

Lemma sll_protocol_of_wf hrd p :
  (match p with
   | SllNetlink _ => hrd =? 824
   | SllGre _ => hrd =? 778
   | SllIgnored _ => (hrd =? 803) || (hrd =? 770)
   | SllNonstd v => (hrd =? 1) && (match sll_nonstd_try_from v with Some _ => true | None => false end)
   | SllEtherType v => (hrd =? 1) && (match sll_nonstd_try_from v with Some _ => false | None => true end)
   end) = true ->
  sll_protocol_try_from hrd (sll_protocol_u16 p) = Some p.
Proof.
  intros C. unfold sll_protocol_try_from. destruct p as [v|v|v|v|v]; cbn [sll_protocol_u16].
  - apply orb_true_iff in C. destruct C as [C|C]; apply N.eqb_eq in C; subst hrd; reflexivity.
  - apply N.eqb_eq in C. subst hrd. reflexivity.
  - apply N.eqb_eq in C. subst hrd. reflexivity.
  - apply andb_true_iff in C. destruct C as [C1 C2]. apply N.eqb_eq in C1. subst hrd.
    change (1 =? 824) with false. change (1 =? 778) with false. change (1 =? 803) with false.
    change (1 =? 770) with false. change (1 =? 1) with true. cbv iota.
    destruct (sll_nonstd_try_from v); [discriminate|reflexivity].
  - apply andb_true_iff in C. destruct C as [C1 C2]. apply N.eqb_eq in C1. subst hrd.
    change (1 =? 824) with false. change (1 =? 778) with false. change (1 =? 803) with false.
    change (1 =? 770) with false. change (1 =? 1) with true. cbv iota.
    destruct (sll_nonstd_try_from v) as [n|] eqn:E; [|discriminate].
    apply sll_nonstd_some in E. subst n. reflexivity.
Qed.

Lemma sll_protocol_try_from_spec hrd v p : sll_protocol_try_from hrd v = Some p ->
  sll_protocol_u16 p = v /\
  (match p with
   | SllNetlink _ => hrd =? 824
   | SllGre _ => hrd =? 778
   | SllIgnored _ => (hrd =? 803) || (hrd =? 770)
   | SllNonstd v => (hrd =? 1) && (match sll_nonstd_try_from v with Some _ => true | None => false end)
   | SllEtherType v => (hrd =? 1) && (match sll_nonstd_try_from v with Some _ => false | None => true end)
   end) = true.
Proof.
  unfold sll_protocol_try_from. intros H.
  destruct (hrd =? 824) eqn:E1; [apply Some_inj in H; subst p; split; reflexivity|].
  destruct (hrd =? 778) eqn:E2; [apply Some_inj in H; subst p; split; reflexivity|].
  destruct (hrd =? 803) eqn:E3; [apply Some_inj in H; subst p; split; reflexivity|].
  destruct (hrd =? 770) eqn:E4; [apply Some_inj in H; subst p; split; reflexivity|].
  destruct (hrd =? 1) eqn:E5; [|discriminate].
  destruct (sll_nonstd_try_from v) as [n|] eqn:E.
  - pose proof (sll_nonstd_some v n E) as X. subst n. apply Some_inj in H. subst p. cbn [sll_protocol_u16].
    split; [reflexivity|]. rewrite E. reflexivity.
  - apply Some_inj in H. subst p. cbn [sll_protocol_u16]. split; [reflexivity|]. rewrite E. reflexivity.
Qed.

Lemma wf_sll_iff h : wf_sll h = true <->
  sll_packet_type h <= 7 /\ sll_arp_hrd_type h < 65536 /\ sll_sender_address_valid_length h < 65536
  /\ len (sll_sender_address h) = 8 /\ bytes_ok (sll_sender_address h)
  /\ sll_protocol_u16 (sll_protocol_type h) < 65536 /\ sll_consistent h = true.
Proof.
  unfold wf_sll, sll_in_range. rewrite !andb_true_iff, N.leb_le, !N.ltb_lt, N.eqb_eq, bytes_okb_spec. tauto.
Qed.

Lemma len_sll_to_bytes h : wf_sll h = true -> len (sll_to_bytes h) = 16.
Proof.
  intros W. destruct (proj1 (wf_sll_iff h) W) as (_ & _ & _ & LA & _).
  unfold sll_to_bytes. rewrite !len_app, LA. reflexivity.
Qed.

Theorem sll_ser_agree h out slice : wf_sll h = true ->
  sll_write out h = out ++ sll_to_bytes h /\ len (sll_to_bytes h) = sll_header_len h
  /\ (16 <= len slice -> sll_write_to_slice slice h = Ok (sll_to_bytes h ++ drop 16 slice, drop 16 slice))
  /\ (len slice < 16 -> sll_write_to_slice slice h = Err ELen).
Proof.
  intros W. pose proof (len_sll_to_bytes h W) as L. split; [reflexivity|]. split; [exact L|]. split; intros H.
  - unfold sll_write_to_slice. rewrite L, (ltb_false _ _ H). reflexivity.
  - unfold sll_write_to_slice. apply N.ltb_lt in H. rewrite H. reflexivity.
Qed.

Ltac sll_rd := cbv [sll_rd16 rd nth_error N.to_nat Pos.to_nat Pos.iter_op Nat.add Init.Nat.add].

Lemma sll_decoders_enc h : wf_sll h = true ->
  sll_to_header (sll_to_bytes h) = Ok h /\ sll_from_bytes (sll_to_bytes h) = Ok h
  /\ sll_slice_from_slice (sll_to_bytes h) = Ok (sll_to_bytes h).
Proof.
  intros W. destruct (proj1 (wf_sll_iff h) W) as (R1 & R2 & R3 & LA & BA & R4 & C).
  pose proof (len_sll_to_bytes h W) as L16.
  destruct (len8_explicit _ LA) as (a0 & a1 & a2 & a3 & a4 & a5 & a6 & a7 & EA).
  pose proof (sll_protocol_of_wf _ _ C) as PR.
  revert L16. destruct h as [pt hrd savl addr p].
  cbn [sll_packet_type sll_arp_hrd_type sll_sender_address_valid_length sll_sender_address sll_protocol_type] in *.
  subst addr. unfold sll_to_bytes, u16_to_be.
  cbn [sll_packet_type sll_arp_hrd_type sll_sender_address_valid_length sll_sender_address sll_protocol_type app].
  set (v := sll_protocol_u16 p) in *.
  assert (E1 : be16 ((pt / 256) mod 256) (pt mod 256) = pt) by (apply u16_be_roundtrip; lia).
  assert (E2 : be16 ((hrd / 256) mod 256) (hrd mod 256) = hrd) by (apply u16_be_roundtrip; lia).
  assert (E3 : be16 ((savl / 256) mod 256) (savl mod 256) = savl) by (apply u16_be_roundtrip; lia).
  assert (E4 : be16 ((v / 256) mod 256) (v mod 256) = v) by (apply u16_be_roundtrip; lia).
  set (p0 := (pt / 256) mod 256) in *. set (p1 := pt mod 256) in *.
  set (h0 := (hrd / 256) mod 256) in *. set (h1 := hrd mod 256) in *.
  set (s0 := (savl / 256) mod 256) in *. set (s1 := savl mod 256) in *.
  set (v0 := (v / 256) mod 256) in *. set (v1 := v mod 256) in *.
  clearbody p0 p1 h0 h1 s0 s1 v0 v1. intros L16.
  assert (PT : sll_packet_type_try_from pt = Some pt).
  { unfold sll_packet_type_try_from. rewrite (leb_true pt 7 R1). reflexivity. }
  split; [|split].
  - unfold sll_to_header.
    match goal with |- context [slice_range ?s 6 14] =>
      let r := eval vm_compute in (slice_range s 6 14) in change (slice_range s 6 14) with r end.
    sll_rd. rewrite E1, E2, E3, E4, PT, PR. reflexivity.
  - unfold sll_from_bytes. rewrite E1, E2, E3, E4, PT, PR. reflexivity.
  - unfold sll_slice_from_slice. rewrite L16. change (16 <? 16) with false. cbv iota.
    sll_rd. rewrite E1, E2, E4, PT, PR. rewrite take_all by (rewrite L16; lia). reflexivity.
Qed.

Theorem sll_dec_enc h rest : wf_sll h = true ->
  sll_from_slice (sll_to_bytes h ++ rest) = Ok (h, rest) /\ sll_read (sll_to_bytes h ++ rest) = Ok (h, rest)
  /\ sll_from_bytes (sll_to_bytes h) = Ok h.
Proof.
  intros W. pose proof (len_sll_to_bytes h W) as L.
  destruct (sll_decoders_enc h W) as (HD & HB & HS).
  split; [|split; [|exact HB]].
  - unfold sll_from_slice.
    assert (SS : sll_slice_from_slice (sll_to_bytes h ++ rest) = Ok (sll_to_bytes h)).
    { revert HS. unfold sll_slice_from_slice. rewrite len_app, L.
      rewrite (ltb_false (16 + len rest) 16) by lia. change (16 <? 16) with false. cbv iota.
      assert (RD : forall i j, i < 16 -> j < 16 ->
                   sll_rd16 (sll_to_bytes h ++ rest) i j = sll_rd16 (sll_to_bytes h) i j).
      { intros i j Hi Hj. unfold sll_rd16, rd. rewrite !nth_error_app1; [reflexivity| |];
          unfold len in L; lia. }
      rewrite !RD by lia.
      destruct (sll_rd16 (sll_to_bytes h) 0 1), (sll_rd16 (sll_to_bytes h) 2 3),
               (sll_rd16 (sll_to_bytes h) 14 15); try discriminate.
      destruct (sll_packet_type_try_from n); [|discriminate].
      destruct (sll_protocol_try_from n0 n1); [|discriminate].
      intros _. f_equal. apply take_app_len. symmetry. exact L. }
    rewrite SS, HD, slice_from_app by (symmetry; exact L). reflexivity.
  - unfold sll_read. rewrite read_exact_app, HB by (symmetry; exact L). reflexivity.
Qed.

(* no reserved bits: exact reproduction of the 16 consumed bytes *)
Theorem sll_enc_dec bs h rest : bytes_ok bs -> sll_from_slice bs = Ok (h, rest) ->
  wf_sll h = true /\ bs = sll_to_bytes h ++ rest /\ len (sll_to_bytes h) = 16
  /\ sll_from_slice (sll_to_bytes h) = Ok (h, []).
Proof.
  intros OK H. unfold sll_from_slice, sll_slice_from_slice in H.
  destruct (len bs <? 16) eqn:L; [discriminate|].
  destruct bs as [|b0 [|b1 [|b2 [|b3 [|b4 [|b5 [|b6 [|b7 [|b8 [|b9 [|b10 [|b11 [|b12 [|b13 [|b14 [|b15 r]]]]]]]]]]]]]]]];
    try (vm_compute in L; discriminate).
  clear L. revert H. sll_rd.
  destruct (sll_packet_type_try_from (be16 b0 b1)) as [pt|] eqn:PT; [|discriminate].
  destruct (sll_protocol_try_from (be16 b2 b3) (be16 b14 b15)) as [p|] eqn:PR; [|discriminate].
  match goal with |- context [take 16 ?s] =>
    let t := eval cbv [take firstn N.to_nat Pos.to_nat Pos.iter_op Nat.add Init.Nat.add] in (take 16 s) in
    change (take 16 s) with t end.
  unfold sll_to_header.
  match goal with |- context [slice_range ?s 6 14] =>
    let v := eval vm_compute in (slice_range s 6 14) in change (slice_range s 6 14) with v end.
  sll_rd. rewrite PT, PR. unfold slice_from. rewrite !len_cons. rewrite (leb_true 16 _) by lia.
  match goal with |- context [drop 16 ?s] => change (drop 16 s) with r end.
  intros H. apply Ok_inj in H. apply pair_equal_spec in H. destruct H as [Hh Hrest]. subst rest.
  pose proof OK as OK'. bytes_ok_split OK'.
  unfold sll_packet_type_try_from in PT. destruct (be16 b0 b1 <=? 7) eqn:P7; [|discriminate].
  apply Some_inj in PT. subst pt. apply N.leb_le in P7.
  destruct (sll_protocol_try_from_spec _ _ _ PR) as (PU & PC).
  assert (WF : wf_sll h = true).
  { rewrite <- Hh. apply wf_sll_iff. unfold sll_consistent.
    cbn [sll_packet_type sll_arp_hrd_type sll_sender_address_valid_length sll_sender_address sll_protocol_type].
    rewrite PC. pose proof (be16_bound b2 b3 B1 B2). pose proof (be16_bound b4 b5 B3 B4).
    repeat split; try assumption; try reflexivity.
    - repeat (apply bytes_ok_explicit_cons; [assumption|]). constructor.
    - rewrite PU. apply be16_bound; assumption. }
  split; [exact WF|]. split; [|split].
  - rewrite <- Hh. unfold sll_to_bytes.
    cbn [sll_packet_type sll_arp_hrd_type sll_sender_address_valid_length sll_sender_address sll_protocol_type].
    rewrite PU, !u16_to_be_be16 by assumption. reflexivity.
  - apply len_sll_to_bytes. exact WF.
  - destruct (sll_dec_enc h [] WF) as [E _]. rewrite app_nil_r in E. exact E.
Qed.

From EP Require Import Roundtrip.Spec Roundtrip.SpecLinkNet.
Theorem sll_spec h : sll_to_bytes h =
  sll_layout (sll_packet_type h) (sll_arp_hrd_type h) (sll_sender_address_valid_length h)
             (sll_sender_address h) (sll_protocol_u16 (sll_protocol_type h)).
Proof. reflexivity. Qed.

(* values outside wf_sll: every field in the range of its Rust type, but the protocol type
   variant does not belong to the ARP hardware id: the decoders either reject the encoded
   bytes (unsupported hardware id) or return a DIFFERENT value *)
Theorem sll_inconsistent_not_roundtrip h rest : sll_in_range h = true -> sll_consistent h = false ->
  forall h' rest', sll_from_slice (sll_to_bytes h ++ rest) = Ok (h', rest') -> h' <> h.
Proof.
  intros R NC h' rest' D E. subst h'.
  (* decode the prefix alone: the same header comes out, so it would be well-formed *)
  unfold sll_from_slice in D.
  destruct (sll_slice_from_slice (sll_to_bytes h ++ rest)) as [hs|] eqn:S; [|discriminate].
  destruct (sll_to_header hs) as [hh|] eqn:T; [|discriminate].
  destruct (slice_from (sll_to_bytes h ++ rest) 16); [|discriminate].
  apply Ok_inj in D. apply pair_equal_spec in D. destruct D as [D _]. subst hh.
  (* hs is the first 16 bytes and to_header succeeded: protocol consistent *)
  unfold sll_to_header in T.
  destruct (sll_rd16 hs 0 1), (sll_rd16 hs 2 3) as [hrd|], (sll_rd16 hs 4 5), (slice_range hs 6 14),
           (sll_rd16 hs 14 15) as [prv|]; try discriminate.
  destruct (sll_packet_type_try_from n); [|discriminate].
  destruct (sll_protocol_try_from hrd prv) as [p|] eqn:PR; [|discriminate].
  apply Ok_inj in T. destruct (sll_protocol_try_from_spec _ _ _ PR) as (_ & PC).
  rewrite <- T in NC. unfold sll_consistent in NC.
  cbn [sll_arp_hrd_type sll_protocol_type] in NC. rewrite PC in NC. discriminate.
Qed.
