(* A LimitedReader with more budget left over: every successful run of the reader programs of
   ExtChain/ReadModel.v stays the same -- same reader calls, same bytes, same verdict. *)
From EP Require Import Base.Bytes Roundtrip.ReaderInd.
From EP Require IoFault.Model ExtChain.ReadModel.
From Coq Require Import ZArith Lia.
Local Open Scope N_scope.
Module XR := EP.ExtChain.ReadModel.
Module IOM := EP.IoFault.Model.

Definition bump (d : N) (r : IOM.limrd) : IOM.limrd :=
  IOM.mk_limrd (IOM.lr_max r + d) (IOM.lr_source r) (IOM.lr_layer r) (IOM.lr_off r) (IOM.lr_read r).
Definition bump_st (d : N) (st : IOM.rstate) : IOM.rstate :=
  IOM.mk_rstate (IOM.rs_src st) (option_map (bump d) (IOM.rs_lim st)).

(* f's successful runs do not depend on how much budget is left over *)
Definition mono {A} (f : IOM.rstate -> IOM.qres A * IOM.rstate) : Prop :=
  forall d st a st', f st = (IOM.QOk a, st') -> f (bump_st d st) = (IOM.QOk a, bump_st d st').

Lemma mono_qbind {A B} (f : IOM.rstate -> IOM.qres A * IOM.rstate) (k : A -> IOM.rstate -> IOM.qres B * IOM.rstate) :
  mono f -> (forall a, mono (k a)) -> mono (fun st => XR.qbind (f st) k).
Proof.
  intros Hf Hk d st b st' H. cbv beta in *.
  destruct (f st) as [[a|x|e|c| | |] st1] eqn:F; cbn [XR.qbind] in H; try discriminate.
  rewrite (Hf d st a st1 F). cbn [XR.qbind]. apply Hk, H.
Qed.

Lemma mono_ret {A} (a : A) : mono (fun st => (IOM.QOk a, st)).
Proof. intros d st b st' H. injection H as <- <-. reflexivity. Qed.

Lemma mono_rd_exact n : mono (fun st => XR.rd_exact st n).
Proof.
  intros d [s [r|]] bs st'; unfold XR.rd_exact, bump_st; cbn [IOM.rs_src IOM.rs_lim option_map].
  - unfold IOM.lr_read_exact, IOM.checked_sub. cbn [bump IOM.lr_max IOM.lr_read IOM.lr_source IOM.lr_layer IOM.lr_off].
    destruct (IOM.lr_read r <=? IOM.lr_max r) eqn:E1; [|discriminate]. apply N.leb_le in E1.
    destruct (IOM.lr_max r - IOM.lr_read r <? n) eqn:E2; [discriminate|]. apply N.ltb_ge in E2.
    replace (IOM.lr_read r <=? IOM.lr_max r + d) with true by (symmetry; apply N.leb_le; lia).
    replace (IOM.lr_max r + d - IOM.lr_read r <? n) with false by (symmetry; apply N.ltb_ge; lia).
    destruct (IOM.io_read_exact s n) as [[b|k| |] s']; try discriminate.
    intros H. injection H as <- <-. reflexivity.
  - destruct (IOM.io_read_exact s n) as [[b|k| |] s']; try discriminate.
    intros H. injection H as <- <-. reflexivity.
Qed.

Lemma mono_start_layer lim layer : mono (XR.start_layer lim layer).
Proof.
  intros d [s [r|]] u st'; unfold XR.start_layer, bump_st; cbn [IOM.rs_src IOM.rs_lim option_map]; destruct lim;
    try discriminate; try (intros H; injection H as <- <-; reflexivity).
  unfold IOM.lr_start_layer, IOM.checked_sub. cbn [bump IOM.lr_max IOM.lr_read IOM.lr_source IOM.lr_layer IOM.lr_off].
  destruct (IOM.lr_read r <=? IOM.lr_max r) eqn:E1; [|discriminate]. apply N.leb_le in E1.
  replace (IOM.lr_read r <=? IOM.lr_max r + d) with true by (symmetry; apply N.leb_le; lia).
  intros H. injection H as <- <-. cbn [IOM.rs_src IOM.rs_lim option_map bump IOM.lr_max IOM.lr_read IOM.lr_source IOM.lr_layer IOM.lr_off].
  replace (IOM.lr_max r + d - IOM.lr_read r) with (IOM.lr_max r - IOM.lr_read r + d) by lia. reflexivity.
Qed.

Lemma mono_fail {A} (q : IOM.qres A) : (forall a, q <> IOM.QOk a) -> mono (fun st => (q, st)).
Proof. intros N d st a st' H. injection H as H _. destruct (N a H). Qed.

Theorem mono_read6 lim first : mono (XR.read6 lim first).
Proof.
  apply (P_read6 (@mono)); try (intros A; apply mono_fail; discriminate).
  - exact @mono_ret.
  - exact @mono_qbind.
  - exact mono_rd_exact.
  - exact mono_start_layer.
Qed.
