(* Roundtrip/Icmp6Proofs.v -- C08 for Icmpv6Header / Icmpv6Type.
   The type/code dispatch of the decoder is taken from the C17 lemma
   CtlMsg.Proofs.icmp6_cases (model = RFC table for ALL numbers). *)
From EP Require Import Base.Bytes.
From EP Require Import CtlMsg.Spec CtlMsg.Model CtlMsg.Proofs.
From EP Require Import Roundtrip.Common Roundtrip.CommonProofs Roundtrip.Msg8 Roundtrip.Icmp6.
From Coq Require Import ZArith Lia ZifyN Bool.
Local Open Scope N_scope.

Definition icmp6_of_bytes (t c b4 b5 b6 b7 : N) : Icmpv6Type :=
  match lookup t c icmp6_table with
  | Some f => f [t; c; 0; 0; b4; b5; b6; b7]
  | None => V6Unknown t c b4 b5 b6 b7
  end.

Lemma spec6_of_bytes t c k0 k1 b4 b5 b6 b7 rest :
  spec6_type t c b4 b5 b6 b7 (t :: c :: k0 :: k1 :: b4 :: b5 :: b6 :: b7 :: rest) = icmp6_of_bytes t c b4 b5 b6 b7.
Proof. unfold spec6_type, icmp6_of_bytes, icmp6_table. cbn [lookup]. table_cases. reflexivity. Qed.

Lemma icmp6_of_bytes_hl t c b4 b5 b6 b7 : icmp6_type_header_len (icmp6_of_bytes t c b4 b5 b6 b7) = 8.
Proof. destruct (icmp6_of_bytes t c b4 b5 b6 b7); reflexivity. Qed.

Lemma icmp6_header_8 t c k0 k1 b4 b5 b6 b7 rest :
  icmp6_slice_header (t :: c :: k0 :: k1 :: b4 :: b5 :: b6 :: b7 :: rest) =
  Ok {| icmp6_type := icmp6_of_bytes t c b4 b5 b6 b7; icmp6_checksum := be16 k0 k1 |}.
Proof.
  destruct (icmp6_cases t c k0 k1 b4 b5 b6 b7 rest) as [Ht _]. cbv zeta in Ht.
  unfold icmp6_slice_header. rewrite Ht, spec6_of_bytes. reflexivity.
Qed.

Lemma icmp6_from_slice_8 t c k0 k1 b4 b5 b6 b7 rest :
  8 + len rest <= 4294967295 ->
  icmp6_from_slice (t :: c :: k0 :: k1 :: b4 :: b5 :: b6 :: b7 :: rest) =
  Ok ({| icmp6_type := icmp6_of_bytes t c b4 b5 b6 b7; icmp6_checksum := be16 k0 k1 |}, rest).
Proof.
  intros LM. unfold icmp6_from_slice, Icmpv6Slice.from_slice, Icmpv6Slice.MIN_LEN, Icmpv6Slice.MAX_ICMPV6_BYTE_LEN.
  rewrite len8.
  replace (8 + len rest <? 8) with false by (symmetry; apply N.ltb_ge; lia).
  replace (4294967295 <? 8 + len rest) with false by (symmetry; apply N.ltb_ge; lia).
  rewrite icmp6_header_8.
  unfold icmp6_header_len. cbn [icmp6_type]. rewrite icmp6_of_bytes_hl.
  unfold slice_from. rewrite len8.
  replace (8 <=? 8 + len rest) with true by (symmetry; apply N.leb_le; lia).
  reflexivity.
Qed.

Lemma icmp6_read_8 t c k0 k1 b4 b5 b6 b7 rest :
  icmp6_read (t :: c :: k0 :: k1 :: b4 :: b5 :: b6 :: b7 :: rest) =
  Ok ({| icmp6_type := icmp6_of_bytes t c b4 b5 b6 b7; icmp6_checksum := be16 k0 k1 |}, rest).
Proof.
  unfold icmp6_read.
  change (t :: c :: k0 :: k1 :: b4 :: b5 :: b6 :: b7 :: rest) with ([t; c; k0; k1; b4; b5; b6; b7] ++ rest).
  rewrite read_exact_app by reflexivity. rewrite (icmp6_header_8 _ _ _ _ _ _ _ _ []). reflexivity.
Qed.

Lemma return_trivial_eq ck t c :
  icmp6_return_trivial (u16_to_be ck) t c = Some [t; c; (ck / 256) mod 256; ck mod 256; 0; 0; 0; 0].
Proof. reflexivity. Qed.
Lemma return_4u8_eq ck t c x0 x1 x2 x3 :
  icmp6_return_4u8 (u16_to_be ck) t c [x0; x1; x2; x3] = Some [t; c; (ck / 256) mod 256; ck mod 256; x0; x1; x2; x3].
Proof. reflexivity. Qed.

Theorem icmp6_ser_agree h out :
  exists e, icmp6_to_bytes h = Some e /\ icmp6_write out h = Some (out ++ e) /\ len e = icmp6_header_len h.
Proof.
  assert (X : exists e, icmp6_to_bytes h = Some e /\ len e = icmp6_header_len h).
  { destruct h as [ty ck]. unfold icmp6_to_bytes, icmp6_header_len. cbn [icmp6_type icmp6_checksum].
    destruct ty; cbn [icmp6_type_header_len];
      unfold icmp6_echo_to_bytes, icmp6_ra_to_bytes, icmp6_na_to_bytes, u32_to_be; cbv zeta;
      try (change (u16_to_be id) with [(id / 256) mod 256; id mod 256]);
      try (change (u16_to_be seq) with [(seq / 256) mod 256; seq mod 256]);
      try (change (u16_to_be router_lifetime) with [(router_lifetime / 256) mod 256; router_lifetime mod 256]);
      cbn [app];
      rewrite ?return_trivial_eq, ?return_4u8_eq; eexists; split; reflexivity. }
  destruct X as (e & E & L). exists e. unfold icmp6_write. rewrite E. repeat split; assumption.
Qed.

Ltac of_bytes_red6 :=
  lazy [icmp6_of_bytes icmp6_table lookup N.eqb Pos.eqb andb pp6 u16_at u32_at byte_at nth
        N.to_nat Pos.to_nat Pos.iter_op Nat.add Init.Nat.add N.add Pos.add Pos.succ].

(* a value given by the octets that decode to it: these octets are its encoding and decode
   back with any remainder *)
Lemma dec_enc_8 ty ck t c x4 x5 x6 x7 :
  ck < 65536 -> t < 256 -> c < 256 -> x4 < 256 -> x5 < 256 -> x6 < 256 -> x7 < 256 ->
  icmp6_of_bytes t c x4 x5 x6 x7 = ty ->
  exists e, Some [t; c; (ck / 256) mod 256; ck mod 256; x4; x5; x6; x7] = Some e /\
    len e = icmp6_type_header_len ty /\ bytes_ok e /\
    (forall rest, icmp6_read (e ++ rest) = Ok ({| icmp6_type := ty; icmp6_checksum := ck |}, rest)) /\
    (forall rest, 8 + len rest <= 4294967295 ->
       icmp6_from_slice (e ++ rest) = Ok ({| icmp6_type := ty; icmp6_checksum := ck |}, rest)).
Proof.
  intros Hck Ht Hc H4 H5 H6 H7 <-. eexists. split; [reflexivity|].
  split; [rewrite icmp6_of_bytes_hl; reflexivity|].
  split.
  { repeat (apply bytes_ok_explicit_cons; [first [assumption | apply mod256_lt]|]). constructor. }
  split; intros rest; cbn [app].
  - rewrite icmp6_read_8. rewrite (u16_be_roundtrip _ Hck). reflexivity.
  - intros LM. rewrite icmp6_from_slice_8 by exact LM. rewrite (u16_be_roundtrip _ Hck). reflexivity.
Qed.

Ltac fin8 := apply dec_enc_8;
    try lia; try apply mod256_lt; try assumption; try reflexivity;
    of_bytes_red6; rewrite ?u16_be_roundtrip, ?u32_be_roundtrip by assumption; reflexivity.

(* every well-formed value: read returns the value and any remainder; from_slice does so
   as long as the whole slice is not longer than u32::MAX (Icmpv6Slice::from_slice rejects
   longer slices) *)
Theorem icmp6_dec_enc h : wf_icmp6 h = true ->
  exists e, icmp6_to_bytes h = Some e /\ len e = icmp6_header_len h /\ bytes_ok e /\
    (forall rest, icmp6_read (e ++ rest) = Ok (h, rest)) /\
    (forall rest, 8 + len rest <= 4294967295 -> icmp6_from_slice (e ++ rest) = Ok (h, rest)).
Proof.
  destruct h as [ty ck]. unfold wf_icmp6. cbn [icmp6_type icmp6_checksum]. intros W.
  apply andb_true_iff in W. destruct W as [WT WC]. apply N.ltb_lt in WC.
  unfold icmp6_to_bytes, icmp6_header_len. cbn [icmp6_type icmp6_checksum].
  destruct ty as [t c b4 b5 b6 b7 | code | mtu | code | code pointer | id seq | id seq | | chl m o rl | | r s o | ].
  - (* Unknown *)
    cbn [wf_icmp6_type] in WT. bsplit WT. rewrite return_4u8_eq.
    match goal with H : negb (icmp6_typed t c) = true |- _ => rename H into WN end.
    unfold icmp6_typed in WN.
    destruct (lookup t c icmp6_table) eqn:LT; [cbn [negb] in WN; discriminate|].
    apply dec_enc_8; try assumption. unfold icmp6_of_bytes. rewrite LT. reflexivity.
  - (* DestinationUnreachable *)
    rewrite return_trivial_eq. destruct code; cbn [icmp6_du_code_u8]; fin8.
  - (* PacketTooBig *)
    cbn [wf_icmp6_type] in WT. bsplit WT. unfold u32_to_be. rewrite return_4u8_eq. fin8.
  - (* TimeExceeded *)
    rewrite return_trivial_eq. destruct code; cbn [icmp6_te_code_u8]; fin8.
  - (* ParameterProblem *)
    cbn [wf_icmp6_type] in WT. bsplit WT. unfold u32_to_be. rewrite return_4u8_eq.
    destruct code; cbn [icmp6_pp_code_u8]; fin8.
  - (* EchoRequest *)
    cbn [wf_icmp6_type] in WT. bsplit WT. unfold icmp6_echo_to_bytes, u16_to_be at 2 3. cbn [app].
    rewrite return_4u8_eq. fin8.
  - (* EchoReply *)
    cbn [wf_icmp6_type] in WT. bsplit WT. unfold icmp6_echo_to_bytes, u16_to_be at 2 3. cbn [app].
    rewrite return_4u8_eq. fin8.
  - rewrite return_trivial_eq. fin8.
  - (* RouterAdvertisement *)
    cbn [wf_icmp6_type] in WT. bsplit WT. unfold icmp6_ra_to_bytes, u16_to_be at 2. cbn [app].
    rewrite return_4u8_eq. destruct m, o; fin8.
  - rewrite return_trivial_eq. fin8.
  - (* NeighborAdvertisement *)
    unfold icmp6_na_to_bytes. cbv zeta. rewrite return_4u8_eq. destruct r, s, o; fin8.
  - rewrite return_trivial_eq. fin8.
Qed.

(* raw pairs: nothing is normalised.  Every test under which the mask drops octets names
   pairs that the table lists. *)
Lemma raw_mask t c : lookup t c icmp6_table = None -> icmp6_keep_mask t c = ones 8.
Proof.
  intros LT. unfold icmp6_keep_mask. rewrite !andb_orb_distrib_l.
  rewrite (unlisted_upto _ t c LT 1 6), (unlisted_upto _ t c LT 3 1) by reflexivity.
  rewrite (unlisted_at _ t c LT 133 0), (unlisted_at _ t c LT 135 0), (unlisted_at _ t c LT 137 0),
          (unlisted_at _ t c LT 134 0), (unlisted_at _ t c LT 136 0) by discriminate.
  reflexivity.
Qed.

(* the flag bytes of router / neighbor advertisement: all 256 values *)
Definition ra_flags_ok (b : N) : bool :=
  bor (if bit_msb b 0 then 128 else 0) (if bit_msb b 1 then 64 else 0) =? N.land b 192.
Lemma sweep_ra_flags : all_below 256 ra_flags_ok = true.
Proof. vm_compute. reflexivity. Qed.
Lemma ra_flags b : b < 256 -> bor (if bit_msb b 0 then 128 else 0) (if bit_msb b 1 then 64 else 0) = N.land b 192.
Proof. intros H. apply N.eqb_eq. exact (all_byte _ sweep_ra_flags b H). Qed.

Definition na_flags_ok (b : N) : bool :=
  bytes_eqb (icmp6_na_to_bytes (bit_msb b 0) (bit_msb b 1) (bit_msb b 2)) [N.land b 224; 0; 0; 0].
Lemma sweep_na_flags : all_below 256 na_flags_ok = true.
Proof. vm_compute. reflexivity. Qed.
Lemma na_flags b : b < 256 ->
  icmp6_na_to_bytes (bit_msb b 0) (bit_msb b 1) (bit_msb b 2) = [N.land b 224; 0; 0; 0].
Proof. intros H. apply bytes_eqb_eq. exact (all_byte _ sweep_na_flags b H). Qed.

Ltac mask_compute :=
  match goal with
  | |- context [icmp6_keep_mask ?t ?c] =>
    let m := eval vm_compute in (icmp6_keep_mask t c) in change (icmp6_keep_mask t c) with m
  end.

Lemma enc_dec_8 t c k0 k1 b4 b5 b6 b7 :
  t < 256 -> c < 256 -> k0 < 256 -> k1 < 256 -> b4 < 256 -> b5 < 256 -> b6 < 256 -> b7 < 256 ->
  let h := {| icmp6_type := icmp6_of_bytes t c b4 b5 b6 b7; icmp6_checksum := be16 k0 k1 |} in
  wf_icmp6 h = true /\
  icmp6_to_bytes h = Some (masked (icmp6_keep_mask t c) [t; c; k0; k1; b4; b5; b6; b7]).
Proof.
  intros Ht Hc H0 H1 H4 H5 H6 H7 h. subst h.
  pose proof (be16_bound k0 k1 H0 H1) as CK. apply N.ltb_lt in CK.
  unfold wf_icmp6, icmp6_to_bytes. cbn [icmp6_type icmp6_checksum]. rewrite CK, andb_true_r.
  destruct (lookup t c icmp6_table) as [f|] eqn:LT.
  - unfold icmp6_table in LT. cbn [lookup] in LT. split_table LT.
    all: match goal with E : (_ =? ?t') && (_ =? ?c') = true |- _ =>
           apply andb_true_iff in E; destruct E as [E1 E2]; apply N.eqb_eq in E1, E2; subst t' c' end.
    all: clear LT Ht Hc.
    all: of_bytes_red6; cbn [wf_icmp6_type icmp6_du_code_u8 icmp6_te_code_u8 icmp6_pp_code_u8].
    all: mask_compute; cbn [masked].
    all: rewrite ?na_flags by assumption.
    all: unfold icmp6_echo_to_bytes, icmp6_ra_to_bytes.
    all: rewrite ?ra_flags by assumption.
    all: rewrite ?(u32_to_be_be32 b4 b5 b6 b7 H4 H5 H6 H7), ?(u16_to_be_be16 b4 b5 H4 H5),
           ?(u16_to_be_be16 b6 b7 H6 H7); cbn [app].
    all: rewrite ?return_trivial_eq, ?return_4u8_eq.
    all: rewrite ?be16_hi, ?be16_lo, ?land_255, ?N.land_0_r by (first [assumption | lia]).
    all: split; [|reflexivity].
    all: try reflexivity.
    all: try (pose proof (be16_bound b4 b5 H4 H5) as X1; pose proof (be16_bound b6 b7 H6 H7) as X2;
              pose proof (be32_bound b4 b5 b6 b7 H4 H5 H6 H7) as X3;
              apply N.ltb_lt in X1, X2, X3; apply N.ltb_lt in H4; rewrite ?X1, ?X2, ?X3, ?H4; reflexivity).
  - unfold icmp6_of_bytes. rewrite LT. cbn [wf_icmp6_type]. unfold icmp6_typed. rewrite LT.
    rewrite return_4u8_eq, (raw_mask t c LT).
    change (ones 8) with [255; 255; 255; 255; 255; 255; 255; 255]. cbn [masked].
    rewrite ?be16_hi, ?be16_lo, ?land_255 by assumption.
    apply N.ltb_lt in Ht, Hc, H4, H5, H6, H7. rewrite Ht, Hc, H4, H5, H6, H7. split; reflexivity.
Qed.

(* every accepted byte string: the value is well-formed, re-encoding reproduces the
   consumed 8 bytes outside icmp6_keep_mask, decoding again gives the same value, and read
   agrees with from_slice *)
Theorem icmp6_enc_dec bs h rest : bytes_ok bs -> icmp6_from_slice bs = Ok (h, rest) ->
  wf_icmp6 h = true /\ bs = take (icmp6_header_len h) bs ++ rest /\
  exists e t c, icmp6_to_bytes h = Some e /\ rd bs 0 = Some t /\ rd bs 1 = Some c /\
    agree (icmp6_keep_mask t c) e (take (icmp6_header_len h) bs) /\
    icmp6_from_slice e = Ok (h, []) /\ icmp6_read bs = Ok (h, rest).
Proof.
  intros OK H.
  destruct (len bs <? 8) eqn:E8.
  { unfold icmp6_from_slice, Icmpv6Slice.from_slice, Icmpv6Slice.MIN_LEN in H. rewrite E8 in H. discriminate. }
  destruct (4294967295 <? len bs) eqn:EM.
  { unfold icmp6_from_slice, Icmpv6Slice.from_slice, Icmpv6Slice.MIN_LEN, Icmpv6Slice.MAX_ICMPV6_BYTE_LEN in H.
    rewrite E8, EM in H. discriminate. }
  destruct (len_ge_cons8 bs E8) as (t & c & k0 & k1 & b4 & b5 & b6 & b7 & r & ->).
  pose proof OK as OK'. bytes_ok_split OK'.
  rewrite len8 in EM. apply N.ltb_ge in EM.
  rewrite icmp6_from_slice_8 in H by exact EM.
  apply Ok_inj in H. apply pair_equal_spec in H. destruct H as [<- <-].
  unfold icmp6_header_len. cbn [icmp6_type]. rewrite icmp6_of_bytes_hl.
  change (take 8 (t :: c :: k0 :: k1 :: b4 :: b5 :: b6 :: b7 :: r)) with [t; c; k0; k1; b4; b5; b6; b7].
  destruct (enc_dec_8 t c k0 k1 b4 b5 b6 b7 B B0 B1 B2 B3 B4 B5 B6) as [WF TB]. cbv zeta in WF, TB.
  split; [exact WF|]. split; [reflexivity|].
  eexists. exists t, c. split; [exact TB|]. split; [reflexivity|]. split; [reflexivity|].
  split.
  { apply agree_of_masked; [|reflexivity].
    unfold icmp6_keep_mask.
    repeat match goal with |- context [if ?b then _ else _] => destruct b end; reflexivity. }
  split.
  - destruct (icmp6_dec_enc _ WF) as (e & TB' & _ & _ & _ & F).
    rewrite TB in TB'. apply Some_inj in TB'. rewrite TB'.
    specialize (F [] ltac:(rewrite len_nil; lia)). rewrite app_nil_r in F. exact F.
  - apply icmp6_read_8.
Qed.

(* slices longer than u32::MAX are rejected by from_slice whatever they contain *)
Lemma icmp6_from_slice_too_long s : 4294967295 < len s -> icmp6_from_slice s = Err ELen.
Proof.
  intros H. unfold icmp6_from_slice, Icmpv6Slice.from_slice, Icmpv6Slice.MIN_LEN, Icmpv6Slice.MAX_ICMPV6_BYTE_LEN.
  replace (len s <? 8) with false by (symmetry; apply N.ltb_ge; lia).
  apply N.ltb_lt in H. rewrite H. reflexivity.
Qed.

(* the encoder against the RFC 4443 / 4861 table of CtlMsg/Spec.v *)
Lemma icmp6_from_slice_spec bs h rest : icmp6_from_slice bs = Ok (h, rest) ->
  icmp6 bs = CtlMsg.Spec.Ok (icmp6_type h, rest).
Proof.
  intros H. rewrite <- icmp6_eq. unfold icmp6_from_slice in H. unfold Icmpv6Slice.view.
  destruct (Icmpv6Slice.from_slice bs) as [sl| |] eqn:FS; try discriminate.
  assert (sl = bs /\ (len bs <? 8) = false) as [-> E8].
  { unfold Icmpv6Slice.from_slice, Icmpv6Slice.MIN_LEN in FS. destruct (len bs <? 8); [discriminate|].
    destruct (_ <? len bs); [discriminate|]. split; congruence. }
  unfold icmp6_slice_header in H.
  destruct (Icmpv6Slice.icmp_type bs) as [ty| |]; try discriminate.
  destruct (Icmpv6Slice.checksum bs); [|discriminate].
  rewrite (icmp6_payload_rest bs E8).
  unfold icmp6_header_len in H. cbn [icmp6_type] in H.
  replace (icmp6_type_header_len ty) with 8 in H by (destruct ty; reflexivity).
  unfold slice_from in H. apply N.ltb_ge in E8.
  replace (8 <=? len bs) with true in H by (symmetry; apply N.leb_le; lia).
  apply Ok_inj in H. apply pair_equal_spec in H. destruct H as [<- <-]. reflexivity.
Qed.

Theorem icmp6_spec h : wf_icmp6 h = true ->
  exists e, icmp6_to_bytes h = Some e /\ icmp6 e = CtlMsg.Spec.Ok (icmp6_type h, []).
Proof.
  intros W. destruct (icmp6_dec_enc h W) as (e & TB & L & _ & _ & F).
  exists e. split; [exact TB|].
  specialize (F [] ltac:(rewrite len_nil; lia)). rewrite app_nil_r in F.
  apply icmp6_from_slice_spec. exact F.
Qed.
