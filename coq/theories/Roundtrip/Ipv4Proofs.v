(* Roundtrip/Ipv4Proofs.v -- C08 for Ipv4Header *)
From EP Require Import Base.Bytes Roundtrip.Common Roundtrip.CommonProofs Roundtrip.Ipv4 Roundtrip.Spec Checksum.Model.
From Coq Require Import ZArith Lia ZifyN.
Local Open Scope N_scope.

(* ---- byte level facts (complete sweeps) ---- *)
Definition b0_of (ol : N) : N := bor (shl8 4 4) (as_u8 (ol / 4 + 5)).
Definition b1_of (dscp ecn : N) : N := bor (shl8 dscp 2) ecn.
Definition b6_of (df mf : bool) (hi : N) : N :=
  bor (let r := 0 in let r := if df then bor r 64 else r in let r := if mf then bor r 32 else r in r)
      (band hi 31).

Definition P0 (ol : N) : bool :=
  if ol mod 4 =? 0 then
    let b := b0_of ol in
    (shr b 4 =? 4) && (band b 15 * 4 =? 20 + ol) && negb (band b 15 <? 5) && (b <? 256)
    && (as_u8 ((band b 15 - 5) * 4) =? ol) && (b =? 4 * 16 + (5 + ol / 4))
  else true.
Lemma sweepP0 : all_below 41 P0 = true.
Proof. vm_compute. reflexivity. Qed.

Lemma b0_dec ol : ol <= 40 -> ol mod 4 = 0 ->
  let b := b0_of ol in
  shr b 4 = 4 /\ band b 15 * 4 = 20 + ol /\ (band b 15 <? 5) = false /\ b < 256
  /\ as_u8 ((band b 15 - 5) * 4) = ol /\ b = 4 * 16 + (5 + ol / 4).
Proof.
  intros H1 H2. pose proof (all_below_spec 41 P0 sweepP0 ol ltac:(lia)) as S.
  unfold P0 in S. rewrite H2 in S. change (0 =? 0) with true in S. cbv iota zeta in S.
  cbv zeta.
  assert (Fs : (shr (b0_of ol) 4 = 4 /\ band (b0_of ol) 15 * 4 = 20 + ol) /\
               (negb (band (b0_of ol) 15 <? 5) = true /\ b0_of ol < 256) /\
               (as_u8 ((band (b0_of ol) 15 - 5) * 4) = ol /\ b0_of ol = 4 * 16 + (5 + ol / 4))).
  { bsplit S. repeat split; assumption. }
  destruct Fs as ((A1 & A2) & (A3 & A4) & (A5 & A6)). apply negb_true_iff in A3.
  repeat split; assumption.
Qed.

Definition P1 (dscp : N) : bool :=
  all_below 4 (fun ecn => let b := b1_of dscp ecn in
    (shr b 2 =? dscp) && (band b 3 =? ecn) && (b <? 256) && (b =? dscp * 4 + ecn)).
Lemma sweepP1 : all_below 64 P1 = true.
Proof. vm_compute. reflexivity. Qed.

Lemma b1_dec dscp ecn : dscp < 64 -> ecn < 4 ->
  let b := b1_of dscp ecn in shr b 2 = dscp /\ band b 3 = ecn /\ b < 256 /\ b = dscp * 4 + ecn.
Proof.
  intros H1 H2. pose proof (all_below_spec 64 P1 sweepP1 dscp ltac:(lia)) as S. unfold P1 in S.
  pose proof (all_below_spec 4 _ S ecn ltac:(lia)) as S'. cbv beta zeta in S'. cbv zeta.
  bsplit S'. repeat split; assumption.
Qed.

Definition P6 (hi : N) : bool :=
  all_bool (fun df => all_bool (fun mf => let b := b6_of df mf hi in
    Bool.eqb (nz (band b 64)) df && Bool.eqb (nz (band b 32)) mf && (band b 31 =? hi) && (b <? 256)
    && (b =? (bit df * 2 + bit mf) * 32 + hi))).
Lemma sweepP6 : all_below 32 P6 = true.
Proof. vm_compute. reflexivity. Qed.

Lemma b6_dec df mf hi : hi < 32 ->
  let b := b6_of df mf hi in
  nz (band b 64) = df /\ nz (band b 32) = mf /\ band b 31 = hi /\ b < 256
  /\ b = (bit df * 2 + bit mf) * 32 + hi.
Proof.
  intros H. pose proof (all_below_spec 32 P6 sweepP6 hi ltac:(lia)) as S. unfold P6 in S.
  pose proof (all_bool_spec _ (all_bool_spec _ S df) mf) as S'. cbv beta zeta in S'. cbv zeta.
  bsplit S'. repeat split; assumption.
Qed.

Definition Q0 (b : N) : bool :=
  if (shr b 4 =? 4) && negb (band b 15 <? 5) then
    let hl := band b 15 * 4 in
    (b0_of (hl - 20) =? b) && (hl <=? 60) && ((hl - 20) mod 4 =? 0) && (20 <=? hl)
    && (as_u8 ((band b 15 - 5) * 4) =? hl - 20)
  else true.
Lemma sweepQ0 : all_below 256 Q0 = true.
Proof. vm_compute. reflexivity. Qed.

Lemma Q0_facts b : b < 256 -> shr b 4 = 4 -> (band b 15 <? 5) = false ->
  let hl := band b 15 * 4 in
  b0_of (hl - 20) = b /\ hl <= 60 /\ (hl - 20) mod 4 = 0 /\ 20 <= hl /\ as_u8 ((band b 15 - 5) * 4) = hl - 20.
Proof.
  intros Hb H1 H2. pose proof (all_byte Q0 sweepQ0 b Hb) as S. unfold Q0 in S.
  rewrite H1, H2 in S. change (4 =? 4) with true in S. cbv iota zeta beta in S. cbn [negb andb] in S.
  cbv zeta. bsplit S. repeat split; assumption.
Qed.

Definition Q1 (b : N) : bool :=
  (b1_of (shr b 2) (band b 3) =? b) && (shr b 2 <? 64) && (band b 3 <? 4).
Lemma sweepQ1 : all_below 256 Q1 = true.
Proof. vm_compute. reflexivity. Qed.
Lemma Q1_facts b : b < 256 -> b1_of (shr b 2) (band b 3) = b /\ shr b 2 < 64 /\ band b 3 < 4.
Proof.
  intros Hb. pose proof (all_byte Q1 sweepQ1 b Hb) as S. unfold Q1 in S. bsplit S. repeat split; assumption.
Qed.

Definition Q6 (b : N) : bool :=
  (b6_of (nz (band b 64)) (nz (band b 32)) (band b 31) =? N.land b 127) && (band b 31 <? 32).
Lemma sweepQ6 : all_below 256 Q6 = true.
Proof. vm_compute. reflexivity. Qed.
Lemma Q6_facts b : b < 256 ->
  b6_of (nz (band b 64)) (nz (band b 32)) (band b 31) = N.land b 127 /\ band b 31 < 32.
Proof.
  intros Hb. pose proof (all_byte Q6 sweepQ6 b Hb) as S. unfold Q6 in S. bsplit S. split; assumption.
Qed.

(* ---- structure ---- *)
Lemma wf_i4o_iff o : wf_i4o o = true <->
  i4o_len o <= 40 /\ i4o_len o mod 4 = 0 /\ len (i4o_buf o) = 40 /\ bytes_ok (i4o_buf o).
Proof. unfold wf_i4o. rewrite !andb_true_iff, N.leb_le, !N.eqb_eq, bytes_okb_spec. tauto. Qed.

Lemma wf_i4o_facts o : wf_i4o o = true ->
  i4o_len o <= 40 /\ i4o_len o mod 4 = 0 /\ len (i4o_buf o) = 40 /\ bytes_ok (i4o_buf o).
Proof. apply wf_i4o_iff. Qed.

Lemma len4_explicit (l : bytes) : len l = 4 -> bytes_ok l ->
  exists a b c d, l = [a; b; c; d] /\ a < 256 /\ b < 256 /\ c < 256 /\ d < 256.
Proof.
  intros L OK.
  destruct l as [|a [|b [|c [|d [|x l]]]]]; try (vm_compute in L; discriminate).
  - exists a, b, c, d. bytes_ok_split OK. repeat split; assumption.
  - rewrite !len_cons in L. lia.
Qed.

Lemma wf_ip4_iff h : wf_ip4 h = true <->
  (i4_dscp h < 64 /\ i4_ecn h < 4 /\ i4_total_len h < 65536 /\ i4_identification h < 65536) /\
  (i4_fragment_offset h < 8192 /\ i4_time_to_live h < 256 /\ i4_protocol h < 256 /\
   i4_header_checksum h < 65536) /\
  (len (i4_source h) = 4 /\ bytes_ok (i4_source h) /\ len (i4_destination h) = 4 /\
   bytes_ok (i4_destination h)) /\ wf_i4o (i4_options h) = true.
Proof. unfold wf_ip4. rewrite !andb_true_iff, !N.ltb_lt, !N.eqb_eq, !bytes_okb_spec. tauto. Qed.

Lemma wf_ip4_facts h : wf_ip4 h = true ->
  (i4_dscp h < 64 /\ i4_ecn h < 4 /\ i4_total_len h < 65536 /\ i4_identification h < 65536) /\
  (i4_fragment_offset h < 8192 /\ i4_time_to_live h < 256 /\ i4_protocol h < 256 /\
   i4_header_checksum h < 65536) /\
  (len (i4_source h) = 4 /\ bytes_ok (i4_source h) /\ len (i4_destination h) = 4 /\
   bytes_ok (i4_destination h)) /\ wf_i4o (i4_options h) = true.
Proof. apply wf_ip4_iff. Qed.

Lemma byte0_is h : ip4_byte0 h = b0_of (i4o_len (i4_options h)). Proof. reflexivity. Qed.
Lemma byte1_is h : ip4_byte1 h = b1_of (i4_dscp h) (i4_ecn h). Proof. reflexivity. Qed.
Lemma byte6_is h : ip4_byte6 h =
  b6_of (i4_dont_fragment h) (i4_more_fragments h) ((i4_fragment_offset h / 256) mod 256).
Proof. reflexivity. Qed.

Lemma frag_hi fo : fo < 8192 -> (fo / 256) mod 256 < 32.
Proof. intros H. dmlia. Qed.

(* the fixed part of a well-formed header *)
Lemma fixed_wf h ck : wf_ip4 h = true -> exists f, ip4_fixed h ck = Some f /\ len f = 20 /\
  exists s0 s1 s2 s3 d0 d1 d2 d3, i4_source h = [s0; s1; s2; s3] /\ i4_destination h = [d0; d1; d2; d3] /\
  f = [ip4_byte0 h; ip4_byte1 h; (i4_total_len h / 256) mod 256; i4_total_len h mod 256;
       (i4_identification h / 256) mod 256; i4_identification h mod 256;
       ip4_byte6 h; ip4_byte7 h; i4_time_to_live h; i4_protocol h; (ck / 256) mod 256; ck mod 256;
       s0; s1; s2; s3; d0; d1; d2; d3].
Proof.
  intros W. destruct (wf_ip4_facts h W) as (_ & _ & (LS & OS & LD & OD) & _).
  destruct (len4_explicit _ LS OS) as (s0 & s1 & s2 & s3 & ES & _).
  destruct (len4_explicit _ LD OD) as (d0 & d1 & d2 & d3 & ED & _).
  unfold ip4_fixed. rewrite ES, ED. eexists. split; [reflexivity|]. split; [reflexivity|].
  exists s0, s1, s2, s3, d0, d1, d2, d3. repeat split.
Qed.

Lemma ip4_to_bytes_wf h : wf_ip4 h = true -> exists f, ip4_fixed h (i4_header_checksum h) = Some f /\
  ip4_to_bytes h = Some (f ++ take (i4o_len (i4_options h)) (i4o_buf (i4_options h))).
Proof.
  intros W. destruct (fixed_wf h (i4_header_checksum h) W) as (f & EF & LF & _).
  destruct (wf_ip4_facts h W) as (_ & _ & _ & WO). destruct (wf_i4o_facts _ WO) as (OL & OM & BL & BO).
  exists f. split; [exact EF|]. unfold ip4_to_bytes. rewrite EF, BL. change (40 =? 40) with true.
  unfold ip4_header_len.
  replace (20 + i4o_len (i4_options h) <=? 60) with true by (symmetry; apply N.leb_le; lia).
  cbn [andb]. f_equal. apply take_app_more. rewrite LF. reflexivity.
Qed.

Lemma i4o_as_slice_wf o : wf_i4o o = true -> i4o_as_slice o = Some (take (i4o_len o) (i4o_buf o)).
Proof.
  intros W. destruct (wf_i4o_facts _ W) as (OL & OM & BL & BO). unfold i4o_as_slice.
  rewrite BL, (proj2 (N.leb_le _ _) OL). reflexivity.
Qed.

Lemma len_take_i4o o : wf_i4o o = true -> len (take (i4o_len o) (i4o_buf o)) = i4o_len o.
Proof. intros W. destruct (wf_i4o_facts _ W) as (OL & OM & BL & BO). apply len_take_le. lia. Qed.

Theorem ip4_ser_agree h out : wf_ip4 h = true ->
  exists e, ip4_to_bytes h = Some e /\ ip4_write_raw out h = Some (out ++ e) /\ len e = ip4_header_len h.
Proof.
  intros W. destruct (ip4_to_bytes_wf h W) as (f & EF & ET).
  destruct (wf_ip4_facts h W) as (_ & _ & _ & WO).
  destruct (fixed_wf h (i4_header_checksum h) W) as (f' & EF' & LF & _).
  rewrite EF in EF'. apply Some_inj in EF'. subst f'.
  eexists. split; [exact ET|]. split.
  - unfold ip4_write_raw, ip4_write_internal. rewrite EF, (i4o_as_slice_wf _ WO). reflexivity.
  - rewrite len_app, LF, (len_take_i4o _ WO). reflexivity.
Qed.

Lemma wf_set_checksum h c : wf_ip4 h = true -> c < 65536 -> wf_ip4 (ip4_set_checksum h c) = true.
Proof.
  rewrite !wf_ip4_iff. cbn [ip4_set_checksum i4_dscp i4_ecn i4_total_len i4_identification i4_fragment_offset
      i4_time_to_live i4_protocol i4_header_checksum i4_source i4_destination i4_options]. tauto.
Qed.

(* write() = to_bytes of the value whose checksum field holds calc_header_checksum *)
Theorem ip4_write_recomputes e h out : wf_ip4 h = true ->
  exists ck, ip4_calc_checksum e h = Some ck /\
    (ck < 65536 -> exists b, ip4_to_bytes (ip4_set_checksum h ck) = Some b /\ ip4_write e out h = Some (out ++ b)) /\
    (i4_header_checksum h = ck -> exists b, ip4_to_bytes h = Some b /\ ip4_write e out h = Some (out ++ b)).
Proof.
  intros W. destruct (wf_ip4_facts h W) as (_ & _ & (LS & OS & LD & OD) & WO).
  destruct (len4_explicit _ LS OS) as (s0 & s1 & s2 & s3 & ES & _).
  destruct (len4_explicit _ LD OD) as (d0 & d1 & d2 & d3 & ED & _).
  unfold ip4_calc_checksum. rewrite ES, ED, (i4o_as_slice_wf _ WO).
  eexists. split; [reflexivity|].
  set (ck := checksum64 _ _).
  assert (CK : ip4_calc_checksum e h = Some ck).
  { unfold ip4_calc_checksum. rewrite ES, ED, (i4o_as_slice_wf _ WO). reflexivity. }
  assert (G : forall h', wf_ip4 h' = true -> h' = ip4_set_checksum h ck ->
              exists b, ip4_to_bytes h' = Some b /\ ip4_write e out h = Some (out ++ b)).
  { intros h' W' E'. destruct (ip4_to_bytes_wf h' W') as (f & EF & ET).
    eexists. split; [exact ET|]. unfold ip4_write. rewrite CK. unfold ip4_write_internal.
    rewrite (i4o_as_slice_wf _ WO).
    assert (EF2 : ip4_fixed h ck = Some f).
    { rewrite <- EF. rewrite E'. reflexivity. }
    rewrite EF2. rewrite E'. reflexivity. }
  split.
  - intros Hck. apply (G (ip4_set_checksum h ck)); [|reflexivity].
    apply wf_set_checksum; assumption.
  - intros Hck. apply (G h W). rewrite <- Hck. destruct h. reflexivity.
Qed.

Lemma ip4_slice_from_slice_app F O rest b0 :
  len F = 20 -> rd F 0 = Some b0 -> shr b0 4 = 4 -> (band b0 15 <? 5) = false ->
  band b0 15 * 4 = 20 + len O ->
  ip4_slice_from_slice (F ++ O ++ rest) = Ok (F ++ O).
Proof.
  intros LF R V I H. unfold ip4_slice_from_slice.
  rewrite !len_app, LF.
  replace (20 + (len O + len rest) <? 20) with false by (symmetry; apply N.ltb_ge; lia).
  assert (R' : rd (F ++ O ++ rest) 0 = Some b0).
  { unfold rd in *. rewrite nth_error_app1; [assumption|]. apply nth_error_Some. congruence. }
  rewrite R', V, I, H. change (4 =? 4) with true. cbn [negb].
  replace (20 + (len O + len rest) <? 20 + len O) with false by (symmetry; apply N.ltb_ge; lia).
  f_equal. rewrite app_assoc. apply take_app_len. rewrite len_app, LF. reflexivity.
Qed.

Theorem ip4_dec_enc h rest : wf_ip4 h = true ->
  exists e, ip4_to_bytes h = Some e /\ ip4_from_slice (e ++ rest) = Ok (ip4_norm h, rest)
            /\ ip4_read (e ++ rest) = Ok (ip4_norm h, rest) /\ ip4_eqb (ip4_norm h) h = true.
Proof.
  intros W. destruct (wf_ip4_facts h W) as ((R1 & R2 & R3 & R4) & (R5 & R6 & R7 & R8) & (LS & OS & LD & OD) & WO).
  destruct (wf_i4o_facts _ WO) as (OL & OM & BL & BO).
  destruct (ip4_to_bytes_wf h W) as (f & EF & ET).
  destruct (fixed_wf h (i4_header_checksum h) W) as (f' & EF' & LF & s0 & s1 & s2 & s3 & d0 & d1 & d2 & d3 & ES & ED & FX).
  rewrite EF in EF'. apply Some_inj in EF'. subst f'.
  set (O := take (i4o_len (i4_options h)) (i4o_buf (i4_options h))) in *.
  assert (LO : len O = i4o_len (i4_options h)) by (apply len_take_i4o; assumption).
  exists (f ++ O). split; [exact ET|].
  destruct (b0_dec (i4o_len (i4_options h)) OL OM) as (A1 & A2 & A3 & A4 & A5 & _).
  destruct (b1_dec (i4_dscp h) (i4_ecn h) R1 R2) as (B1 & B2 & B3 & _).
  pose proof (frag_hi _ R5) as HI.
  destruct (b6_dec (i4_dont_fragment h) (i4_more_fragments h) _ HI) as (C1 & C2 & C3 & C4 & _).
  rewrite <- byte0_is in A1, A2, A3, A4, A5. rewrite <- byte1_is in B1, B2, B3.
  rewrite <- byte6_is in C1, C2, C3, C4. cbv zeta in *.
  assert (FO : be16 ((i4_fragment_offset h / 256) mod 256) (i4_fragment_offset h mod 256) = i4_fragment_offset h)
    by (apply u16_be_roundtrip; clear - R5; lia).
  assert (NRM : {| i4_dscp := i4_dscp h; i4_ecn := i4_ecn h; i4_total_len := i4_total_len h;
          i4_identification := i4_identification h;
          i4_dont_fragment := i4_dont_fragment h; i4_more_fragments := i4_more_fragments h;
          i4_fragment_offset := i4_fragment_offset h;
          i4_time_to_live := i4_time_to_live h; i4_protocol := i4_protocol h;
          i4_header_checksum := i4_header_checksum h;
          i4_source := [s0; s1; s2; s3]; i4_destination := [d0; d1; d2; d3];
          i4_options := {| i4o_len := i4o_len (i4_options h); i4o_buf := O ++ zeros (40 - i4o_len (i4_options h)) |} |}
          = ip4_norm h).
  { unfold ip4_norm, ip4_norm_opt. rewrite ES, ED. reflexivity. }
  assert (HDR : ip4_to_header (f ++ O) = Ok (ip4_norm h)).
  { rewrite FX. cbn [app]. unfold ip4_to_header.
    replace (40 <? len O) with false by (symmetry; apply N.ltb_ge; lia).
    f_equal. rewrite <- NRM. unfold ip4_byte7.
    rewrite !u16_be_roundtrip by assumption.
    rewrite B1, B2, C1, C2, C3, FO, LO. unfold as_u8.
    rewrite (N.mod_small (i4o_len (i4_options h))) by lia. reflexivity. }
  split; [|split].
  - unfold ip4_from_slice. rewrite <- app_assoc.
    rewrite (ip4_slice_from_slice_app f O rest (ip4_byte0 h)); try assumption;
      [|rewrite FX; reflexivity|rewrite A2, LO; reflexivity].
    rewrite HDR, app_assoc, slice_from_app; [reflexivity|].
    unfold ip4_header_len, ip4_norm, ip4_norm_opt. cbn [i4_options i4o_len]. rewrite len_app, LF, LO. reflexivity.
  - unfold ip4_read, read_exact. rewrite <- app_assoc, FX. cbn [app].
    match goal with |- context [len (?x :: ?tl) <? 1] =>
      replace (len (x :: tl) <? 1) with false by (symmetry; apply N.ltb_ge; rewrite len_cons; lia);
      change (take 1 (x :: tl)) with [x]; change (drop 1 (x :: tl)) with tl end.
    cbv iota beta. rewrite A1. change (4 =? 4) with true. cbn [negb].
    match goal with |- context [len (?x1 :: ?x2 :: ?x3 :: ?x4 :: ?x5 :: ?x6 :: ?x7 :: ?x8 :: ?x9 :: ?x10 :: ?x11
        :: ?x12 :: ?x13 :: ?x14 :: ?x15 :: ?x16 :: ?x17 :: ?x18 :: ?x19 :: O ++ rest) <? 19] =>
      set (T := [x1; x2; x3; x4; x5; x6; x7; x8; x9; x10; x11; x12; x13; x14; x15; x16; x17; x18; x19]);
      change (x1 :: x2 :: x3 :: x4 :: x5 :: x6 :: x7 :: x8 :: x9 :: x10 :: x11
        :: x12 :: x13 :: x14 :: x15 :: x16 :: x17 :: x18 :: x19 :: O ++ rest) with (T ++ O ++ rest) end.
    rewrite len_app. change (len T) with 19.
    replace (19 + len (O ++ rest) <? 19) with false by (symmetry; apply N.ltb_ge; lia).
    rewrite (take_app_len T) by reflexivity. rewrite (drop_app_len T) by reflexivity.
    unfold T. cbv iota beta. rewrite A3, A5.
    destruct (N.eqb_spec (i4o_len (i4_options h)) 0) as [Z|NZ].
    + assert (ON : O = []) by (apply len_0_nil; lia). rewrite ON. cbn [app].
      f_equal. rewrite <- NRM. unfold ip4_byte7.
      rewrite !u16_be_roundtrip by assumption.
      rewrite B1, B2, C1, C2, C3, FO, ON, Z. reflexivity.
    + replace (i4o_len (i4_options h) <=? 40) with true by (symmetry; apply N.leb_le; lia).
      rewrite len_app, LO.
      replace (i4o_len (i4_options h) + len rest <? i4o_len (i4_options h)) with false by (symmetry; apply N.ltb_ge; lia).
      rewrite (take_app_len O rest) by (symmetry; exact LO).
      rewrite (drop_app_len O rest) by (symmetry; exact LO).
      f_equal. rewrite <- NRM. unfold ip4_byte7.
      rewrite !u16_be_roundtrip by assumption.
      rewrite B1, B2, C1, C2, C3, FO. reflexivity.
  - unfold ip4_eqb, ip4_norm. cbn [i4_dscp i4_ecn i4_total_len i4_identification i4_dont_fragment
      i4_more_fragments i4_fragment_offset i4_time_to_live i4_protocol i4_header_checksum i4_source
      i4_destination i4_options].
    rewrite !N.eqb_refl, !Bool.eqb_reflx, !bytes_eqb_refl. cbn [andb].
    unfold i4o_eqb. rewrite (i4o_as_slice_wf _ WO). unfold i4o_as_slice, ip4_norm_opt. cbn [i4o_len i4o_buf].
    fold O. rewrite len_app, LO, len_zeros, (proj2 (N.leb_le _ _)) by lia.
    rewrite (take_app_len O) by (symmetry; exact LO). apply bytes_eqb_refl.
Qed.

Theorem ip4_enc_dec bs h rest : bytes_ok bs -> ip4_from_slice bs = Ok (h, rest) ->
  wf_ip4 h = true /\ ip4_norm h = h /\
  exists e, ip4_to_bytes h = Some e /\ bs = take (ip4_header_len h) bs ++ rest
            /\ agree (ip4_keep_mask (ip4_header_len h)) e (take (ip4_header_len h) bs)
            /\ ip4_from_slice e = Ok (h, []).
Proof.
  intros OK H. unfold ip4_from_slice, ip4_slice_from_slice in H.
  destruct (len bs <? 20) eqn:L; [discriminate|].
  destruct bs as [|b0 [|b1 [|b2 [|b3 [|b4 [|b5 [|b6 [|b7 [|b8 [|b9 [|b10 [|b11 [|b12 [|b13 [|b14
    [|b15 [|b16 [|b17 [|b18 [|b19 r]]]]]]]]]]]]]]]]]]]]; try (vm_compute in L; discriminate).
  clear L.
  match type of H with context [rd ?s 0] => change (rd s 0) with (Some b0) in H end.
  cbv iota beta zeta in H.
  destruct (shr b0 4 =? 4) eqn:V; [|discriminate]. cbn [negb] in H. apply N.eqb_eq in V.
  destruct (band b0 15 <? 5) eqn:L1; [discriminate|].
  set (hl := band b0 15 * 4) in *.
  set (bs := b0 :: b1 :: b2 :: b3 :: b4 :: b5 :: b6 :: b7 :: b8 :: b9 :: b10 :: b11 :: b12 :: b13
             :: b14 :: b15 :: b16 :: b17 :: b18 :: b19 :: r) in *.
  destruct (len bs <? hl) eqn:L2; [discriminate|].
  apply N.ltb_ge in L2.
  pose proof OK as OK'. unfold bs in OK'. bytes_ok_split OK'.
  destruct (Q0_facts b0 B V L1) as (Q1 & Q2 & Q3 & Q4 & Q5). fold hl in Q1, Q2, Q3, Q4, Q5.
  destruct (Q1_facts b1 B0) as (U1 & U2 & U3).
  destruct (Q6_facts b6 B5) as (V1 & V2).
  set (F := [b0; b1; b2; b3; b4; b5; b6; b7; b8; b9; b10; b11; b12; b13; b14; b15; b16; b17; b18; b19]).
  assert (EB : bs = F ++ r) by reflexivity.
  set (O := take (hl - 20) r).
  assert (LR : hl - 20 <= len r).
  { rewrite EB, len_app in L2. change (len F) with 20 in L2. clear - L2 Q4. lia. }
  assert (LO : len O = hl - 20) by (unfold O; rewrite len_take; clear - LR; lia).
  assert (TK : take hl bs = F ++ O).
  { rewrite EB. apply take_app_more. change (len F) with 20. clear - Q4. lia. }
  assert (BOo : bytes_ok O) by (unfold O; apply bytes_ok_take; exact OK').
  rewrite TK in H. unfold F in H. cbn [app] in H. unfold ip4_to_header in H.
  replace (40 <? len O) with false in H by (symmetry; apply N.ltb_ge; clear - LO Q2; lia).
  unfold slice_from, ip4_header_len in H. cbn [i4_options i4o_len] in H.
  assert (AL : as_u8 (len O) = hl - 20) by (unfold as_u8; rewrite LO; apply N.mod_small; clear - Q2; lia).
  rewrite AL in H.
  replace (20 + (hl - 20) <=? len bs) with true in H by (symmetry; apply N.leb_le; clear - L2 Q4; lia).
  apply Ok_inj in H. apply pair_equal_spec in H. destruct H as [Hh Hrest].
  assert (Hl : ip4_header_len h = hl).
  { rewrite <- Hh. unfold ip4_header_len. cbn [i4_options i4o_len]. clear - Q4. lia. }
  assert (FOB : be16 (band b6 31) b7 < 8192) by (unfold be16; clear - V2 B6; lia).
  assert (WF : wf_ip4 h = true).
  { rewrite <- Hh. apply wf_ip4_iff. rewrite wf_i4o_iff.
    cbn [i4_dscp i4_ecn i4_total_len i4_identification i4_fragment_offset i4_time_to_live i4_protocol
      i4_header_checksum i4_source i4_destination i4_options i4o_len i4o_buf].
    pose proof (be16_bound b2 b3 B1 B2). pose proof (be16_bound b4 b5 B3 B4). pose proof (be16_bound b10 b11 B9 B10).
    rewrite len_app, LO, len_zeros.
    repeat split; try assumption; try (clear - Q2; lia);
      try (repeat (apply bytes_ok_explicit_cons; [assumption|]); constructor).
    apply bytes_ok_app. split; [exact BOo|apply bytes_ok_zeros]. }
  assert (NM : ip4_norm h = h).
  { rewrite <- Hh. unfold ip4_norm, ip4_norm_opt.
    cbn [i4_dscp i4_ecn i4_total_len i4_identification i4_dont_fragment
      i4_more_fragments i4_fragment_offset i4_time_to_live i4_protocol i4_header_checksum i4_source
      i4_destination i4_options i4o_len i4o_buf].
    rewrite (take_app_len O) by (symmetry; exact LO). rewrite LO. reflexivity. }
  split; [exact WF|]. split; [exact NM|].
  destruct (ip4_dec_enc h [] WF) as (e & E1 & E2 & _ & _).
  exists e. split; [exact E1|]. rewrite Hl.
  split; [rewrite <- Hrest; replace (20 + (hl - 20)) with hl by (clear - Q4; lia); symmetry; apply take_drop|].
  rewrite app_nil_r, NM in E2. split; [|exact E2].
  destruct (ip4_to_bytes_wf h WF) as (f & EF & ET). rewrite ET in E1. apply Some_inj in E1.
  rewrite <- E1, TK.
  apply agree_of_masked.
  - unfold ip4_keep_mask. rewrite !len_app, !len_ones, LO. change (len F) with 20. change (len [127]) with 1.
    clear - Q4. lia.
  - assert (FX : f = [b0; b1; b2; b3; b4; b5; N.land b6 127; b7; b8; b9; b10; b11; b12; b13;
                      b14; b15; b16; b17; b18; b19]).
    { destruct (fixed_wf h (i4_header_checksum h) WF) as (f' & EF' & _ & s0 & s1 & s2 & s3 & d0 & d1 & d2 & d3 & ES & ED & FX).
      rewrite EF in EF'. apply Some_inj in EF'. subst f'. rewrite FX.
      rewrite byte0_is, byte1_is, byte6_is. unfold ip4_byte7.
      revert ES ED. rewrite <- Hh.
      cbn [i4_dscp i4_ecn i4_total_len i4_identification i4_dont_fragment
        i4_more_fragments i4_fragment_offset i4_time_to_live i4_protocol i4_header_checksum i4_source
        i4_destination i4_options i4o_len i4o_buf].
      intros ES ED. injection ES as <- <- <- <-. injection ED as <- <- <- <-.
      rewrite Q1, U1.
      pose proof (u16_to_be_be16 b2 b3 B1 B2) as Y1. pose proof (u16_to_be_be16 b4 b5 B3 B4) as Y2.
      pose proof (u16_to_be_be16 b10 b11 B9 B10) as Y3.
      pose proof (u16_to_be_be16 (band b6 31) b7 ltac:(clear - V2; lia) B6) as Y4.
      unfold u16_to_be in Y1, Y2, Y3, Y4.
      injection Y1 as -> ->. injection Y2 as -> ->. injection Y3 as -> ->. injection Y4 as -> ->.
      rewrite V1. reflexivity. }
    rewrite FX, <- Hh. cbn [i4_options i4o_len i4o_buf].
    rewrite (take_app_len O) by (symmetry; exact LO).
    unfold ip4_keep_mask.
    change F with ([b0; b1; b2; b3; b4; b5] ++ [b6] ++ [b7; b8; b9; b10; b11; b12; b13; b14; b15; b16; b17; b18; b19]).
    rewrite <- !app_assoc.
    change 6 with (len [b0; b1; b2; b3; b4; b5]).
    rewrite masked_ones_app by (repeat (apply bytes_ok_explicit_cons; [assumption|]); constructor).
    rewrite (masked_app [127] _ [b6]) by reflexivity.
    replace (hl - 7) with (len ([b7; b8; b9; b10; b11; b12; b13; b14; b15; b16; b17; b18; b19] ++ O))
      by (rewrite len_app, LO; change (len [b7; b8; b9; b10; b11; b12; b13; b14; b15; b16; b17; b18; b19]) with 13; clear - Q4; lia).
    rewrite masked_ones by (repeat (apply bytes_ok_explicit_cons; [assumption|]); exact BOo).
    reflexivity.
Qed.

(* ---- the serialiser writes the RFC 791 layout ---- *)
Theorem ip4_spec h : wf_ip4 h = true ->
  ip4_to_bytes h = Some (ipv4_layout (i4_dscp h) (i4_ecn h) (i4_total_len h) (i4_identification h)
    (i4_dont_fragment h) (i4_more_fragments h) (i4_fragment_offset h) (i4_time_to_live h) (i4_protocol h)
    (i4_header_checksum h) (i4_source h) (i4_destination h)
    (take (i4o_len (i4_options h)) (i4o_buf (i4_options h)))).
Proof.
  intros W. destruct (wf_ip4_facts h W) as ((R1 & R2 & R3 & R4) & (R5 & R6 & R7 & R8) & _ & WO).
  destruct (wf_i4o_facts _ WO) as (OL & OM & BL & BO).
  destruct (ip4_to_bytes_wf h W) as (f & EF & ET). rewrite ET. f_equal.
  destruct (fixed_wf h (i4_header_checksum h) W) as (f' & EF' & _ & s0 & s1 & s2 & s3 & d0 & d1 & d2 & d3 & ES & ED & FX).
  rewrite EF in EF'. apply Some_inj in EF'. subst f'. rewrite FX.
  unfold ipv4_layout. rewrite ES, ED, (len_take_i4o _ WO).
  destruct (b0_dec (i4o_len (i4_options h)) OL OM) as (_ & _ & _ & _ & _ & A6).
  destruct (b1_dec (i4_dscp h) (i4_ecn h) R1 R2) as (_ & _ & _ & B4).
  pose proof (frag_hi _ R5) as HI.
  destruct (b6_dec (i4_dont_fragment h) (i4_more_fragments h) _ HI) as (_ & _ & _ & _ & C5).
  rewrite <- byte0_is in A6. rewrite <- byte1_is in B4. rewrite <- byte6_is in C5. cbv zeta in *.
  rewrite A6, B4, C5. unfold ip4_byte7.
  set (fo := i4_fragment_offset h) in *. set (k := bit (i4_dont_fragment h) * 2 + bit (i4_more_fragments h)).
  assert (K : k < 4) by (unfold k, bit; destruct (i4_dont_fragment h), (i4_more_fragments h); lia).
  assert (E6 : ((k * 8192 + fo) / 256) mod 256 = k * 32 + (fo / 256) mod 256) by (clear - K R5; dmlia).
  assert (E7 : (k * 8192 + fo) mod 256 = fo mod 256) by (clear - K R5; dmlia).
  unfold field. cbn [to_be app]. rewrite E6, E7. reflexivity.
Qed.
