(* Roundtrip/MacsecProofs.v -- C08 for MacsecHeader *)
From EP Require Import Base.Bytes Roundtrip.Common Roundtrip.CommonProofs Roundtrip.Macsec.
From Coq Require Import ZArith Lia ZifyN.
Local Open Scope N_scope.

(* the TCI/AN octet: every combination of the five flags and the two AN bits *)
Definition mac_PT (an : N) : bool :=
  all_bool (fun c => all_bool (fun e => all_bool (fun scb => all_bool (fun sc => all_bool (fun es =>
    let t := mac_tci_of an c e scb sc es in
    (t <? 128) && Bool.eqb (nz (band t 128)) false && Bool.eqb (band t 12 =? 0) (negb c && negb e)
    && Bool.eqb (nz (band t 32)) sc && Bool.eqb (nz (band t 64)) es && Bool.eqb (nz (band t 16)) scb
    && Bool.eqb (nz (band t 8)) e && Bool.eqb (nz (band t 4)) c && (band t 3 =? an)))))).
Lemma mac_sweepPT : all_below 4 mac_PT = true.
Proof. vm_compute. reflexivity. Qed.

Lemma mac_tci_facts an c e scb sc es : an < 4 ->
  let t := mac_tci_of an c e scb sc es in
  t < 128 /\ nz (band t 128) = false /\ (band t 12 =? 0) = (negb c && negb e)%bool
  /\ nz (band t 32) = sc /\ nz (band t 64) = es /\ nz (band t 16) = scb
  /\ nz (band t 8) = e /\ nz (band t 4) = c /\ band t 3 = an.
Proof.
  intros H. pose proof (all_below_spec 4 mac_PT mac_sweepPT an ltac:(lia)) as S. unfold mac_PT in S.
  pose proof (all_bool_spec _ (all_bool_spec _ (all_bool_spec _ (all_bool_spec _ (all_bool_spec _ S c) e) scb) sc) es) as S'.
  cbv beta zeta in S'. bsplit S'. cbv zeta. repeat split; assumption.
Qed.

Lemma mac_sl_fact sl : sl < 64 -> band sl 63 = sl.
Proof. exact (band_low_small sl 6). Qed.

(* decode side: every first byte with the version bit clear *)
Definition mac_ptype_of (e c : bool) (et : N) : MacsecPType :=
  if e then (if c then MacEncrypted else MacEncryptedUnmodified)
  else if c then MacModified else MacUnmodified et.
Definition mac_Q0 (b : N) : bool :=
  if nz (band b 128) then true else
  let e := nz (band b 8) in let c := nz (band b 4) in
  let p := mac_ptype_of e c 0 in
  (mac_tci_of (band b 3) (mac_userdata_changed p) (mac_encrypted p) (nz (band b 16)) (nz (band b 32)) (nz (band b 64)) =? b)
  && Bool.eqb (band b 12 =? 0) (negb e && negb c) && (band b 3 <? 4).
Lemma mac_sweepQ0 : all_below 256 mac_Q0 = true.
Proof. vm_compute. reflexivity. Qed.
Lemma mac_Q0_facts b : b < 256 -> nz (band b 128) = false ->
  let e := nz (band b 8) in let c := nz (band b 4) in
  mac_tci_of (band b 3) (mac_userdata_changed (mac_ptype_of e c 0)) (mac_encrypted (mac_ptype_of e c 0))
             (nz (band b 16)) (nz (band b 32)) (nz (band b 64)) = b
  /\ (band b 12 =? 0) = (negb e && negb c)%bool /\ band b 3 < 4.
Proof.
  intros H V. pose proof (all_byte mac_Q0 mac_sweepQ0 b H) as S. unfold mac_Q0 in S. rewrite V in S.
  cbv zeta in S. bsplit S. cbv zeta. repeat split; assumption.
Qed.

Lemma mac_Q1_facts b : b < 256 -> band b 63 < 64 /\ band (band b 63) 63 = band b 63.
Proof. intros _. pose proof (band_low_lt b 6) as L. split; [exact L|exact (band_low_small _ 6 L)]. Qed.

(* ---- u64 big endian ---- *)
Lemma to_be8_explicit s : to_be 8 s =
  [(s / 256 / 256 / 256 / 256 / 256 / 256 / 256) mod 256; (s / 256 / 256 / 256 / 256 / 256 / 256) mod 256;
   (s / 256 / 256 / 256 / 256 / 256) mod 256; (s / 256 / 256 / 256 / 256) mod 256;
   (s / 256 / 256 / 256) mod 256; (s / 256 / 256) mod 256; (s / 256) mod 256; s mod 256].
Proof. reflexivity. Qed.
Lemma pow256_8 : 256 ^ N.of_nat 8 = 18446744073709551616.
Proof. vm_compute. reflexivity. Qed.
Lemma of_be8_roundtrip s : s < 18446744073709551616 -> of_be (to_be 8 s) = s.
Proof. intros H. apply of_be_to_be. rewrite pow256_8. exact H. Qed.
Lemma of_be8_bound a b c d e f g h : bytes_ok [a; b; c; d; e; f; g; h] ->
  of_be [a; b; c; d; e; f; g; h] < 18446744073709551616.
Proof. intros H. pose proof (of_be_bound _ H) as X. change (len [a; b; c; d; e; f; g; h]) with (N.of_nat 8) in X.
  rewrite pow256_8 in X. exact X. Qed.
Lemma to_be8_of_be a b c d e f g h : bytes_ok [a; b; c; d; e; f; g; h] ->
  to_be 8 (of_be [a; b; c; d; e; f; g; h]) = [a; b; c; d; e; f; g; h].
Proof. intros H. exact (to_be_of_be _ H). Qed.

(* ---- encoder ---- *)
Definition mac_first (h : MacsecHeader) : bytes :=
  [mac_tci_an h; band (mac_short_len h) 63] ++ u32_to_be (mac_packet_nr h).
Definition mac_more (h : MacsecHeader) : bytes :=
  (match mac_sci h with Some s => to_be 8 s | None => [] end)
  ++ (match mac_ptype h with MacUnmodified e => u16_to_be e | _ => [] end).
Definition mac_enc (h : MacsecHeader) : bytes := mac_first h ++ mac_more h.

Lemma mac_to_bytes_enc h : mac_to_bytes h = Some (mac_enc h).
Proof. destruct h as [p es scb an sl pn sci]. destruct p, sci; reflexivity. Qed.

Lemma len_mac_first h : len (mac_first h) = 6.
Proof. reflexivity. Qed.
Lemma len_mac_more h : len (mac_more h) = mac_header_len h - 6.
Proof. destruct h as [p es scb an sl pn sci]. destruct p, sci; reflexivity. Qed.
Lemma len_mac_enc h : len (mac_enc h) = mac_header_len h.
Proof. destruct h as [p es scb an sl pn sci]. destruct p, sci; reflexivity. Qed.

Theorem mac_ser_agree h out :
  exists e, mac_to_bytes h = Some e /\ mac_write out h = Some (out ++ e) /\ len e = mac_header_len h.
Proof.
  exists (mac_enc h). split; [apply mac_to_bytes_enc|]. split.
  - unfold mac_write. rewrite mac_to_bytes_enc. reflexivity.
  - apply len_mac_enc.
Qed.

(* ---- decode (encode v ++ rest) ---- *)
Lemma rd_app1 (A B : bytes) i v : rd A i = Some v -> rd (A ++ B) i = Some v.
Proof. unfold rd. intros H. rewrite nth_error_app1; [assumption|]. apply nth_error_Some. congruence. Qed.

Lemma mac_required_ge tci : 6 <= mac_required_len tci.
Proof. unfold mac_required_len. lia. Qed.

Lemma mac_slice_app E rest tci b1 :
  rd E 0 = Some tci -> rd E 1 = Some b1 -> nz (band tci 128) = false ->
  ((band tci 12 =? 0) && (band b1 63 =? 1))%bool = false -> mac_required_len tci = len E ->
  mac_slice_from_slice (E ++ rest) = Ok E.
Proof.
  intros R0 R1 V U L. pose proof (mac_required_ge tci) as G.
  unfold mac_slice_from_slice. rewrite len_app.
  replace (len E + len rest <? 6) with false by (symmetry; apply N.ltb_ge; lia).
  rewrite (rd_app1 E rest 0 tci R0), V, (rd_app1 E rest 1 b1 R1).
  assert (X : (if band tci 12 =? 0 then if band b1 63 =? 1 then Err (EContent 1) else Ok tt else Ok tt) = @Ok unit tt).
  { destruct (band tci 12 =? 0); [|reflexivity]. cbn [andb] in U. rewrite U. reflexivity. }
  rewrite X, L.
  replace (len E + len rest <? len E) with false by (symmetry; apply N.ltb_ge; lia).
  f_equal. apply take_app_len. reflexivity.
Qed.

Lemma wf_mac_iff h : wf_mac h = true <->
  mac_wf_ptype (mac_ptype h) = true /\ mac_an h < 4 /\ mac_short_len h < 64 /\ mac_packet_nr h < 4294967296
  /\ mac_wf_sci (mac_sci h) = true /\ (mac_is_unmod (mac_ptype h) && (mac_short_len h =? 1))%bool = false.
Proof. unfold wf_mac. rewrite !andb_true_iff, !N.ltb_lt, negb_true_iff. tauto. Qed.

Ltac mac_rd := cbv [rd nth_error N.to_nat Pos.to_nat Pos.iter_op Nat.add Init.Nat.add].

(* to_header on the encoded bytes *)
Lemma mac_to_header_enc h : wf_mac h = true -> mac_to_header (mac_enc h) = Ok h.
Proof.
  intros W. destruct (proj1 (wf_mac_iff h) W) as (WP & WA & WS & WN & WC & WX).
  destruct h as [p es scb an sl pn sci]. cbn [mac_ptype mac_an mac_short_len mac_packet_nr mac_sci] in *.
  destruct (mac_tci_facts an (mac_userdata_changed p) (mac_encrypted p) scb (mac_sci_some sci) es WA)
    as (T0 & T1 & T2 & T3 & T4 & T5 & T6 & T7 & T8). cbv zeta in *.
  unfold mac_enc, mac_first, mac_more, mac_tci_an. cbn [mac_ptype mac_an mac_short_len mac_packet_nr mac_sci mac_scb mac_endstation_id].
  set (t := mac_tci_of an (mac_userdata_changed p) (mac_encrypted p) scb (mac_sci_some sci) es) in *.
  rewrite (mac_sl_fact sl WS).
  destruct p as [et| | |], sci as [s|]; cbn [mac_userdata_changed mac_encrypted mac_sci_some negb andb] in *;
    unfold mac_to_header, mac_sl_ptype, mac_sl_sci, mac_rd16, u32_to_be, u16_to_be; try rewrite to_be8_explicit;
    cbn [app]; mac_rd; rewrite T3, T4, T5, T6, T7, T8; cbv iota beta;
    rewrite (u32_be_roundtrip pn WN), (mac_sl_fact sl WS);
    try (rewrite <- to_be8_explicit, of_be8_roundtrip by (cbn [mac_wf_sci] in WC; apply N.ltb_lt; exact WC));
    try (rewrite u16_be_roundtrip by (cbn [mac_wf_ptype] in WP; apply N.ltb_lt; exact WP));
    reflexivity.
Qed.

Lemma mac_enc_head h : exists b2 b3 b4 b5,
  mac_first h = [mac_tci_an h; band (mac_short_len h) 63; b2; b3; b4; b5].
Proof. unfold mac_first, u32_to_be. cbn [app]. eauto. Qed.

Lemma mac_required_enc h : mac_an h < 4 -> mac_required_len (mac_tci_an h) = mac_header_len h.
Proof.
  intros WA.
  destruct (mac_tci_facts (mac_an h) (mac_userdata_changed (mac_ptype h)) (mac_encrypted (mac_ptype h)) (mac_scb h)
              (mac_sci_some (mac_sci h)) (mac_endstation_id h) WA) as (T0 & T1 & T2 & T3 & _). cbv zeta in *.
  unfold mac_required_len, mac_header_len. fold (mac_tci_an h) in T2, T3. rewrite T2, T3.
  destruct (mac_ptype h), (mac_sci h); reflexivity.
Qed.

Lemma mac_unmod_flag h : mac_an h < 4 -> (band (mac_tci_an h) 12 =? 0) = mac_is_unmod (mac_ptype h).
Proof.
  intros WA.
  destruct (mac_tci_facts (mac_an h) (mac_userdata_changed (mac_ptype h)) (mac_encrypted (mac_ptype h)) (mac_scb h)
              (mac_sci_some (mac_sci h)) (mac_endstation_id h) WA) as (T0 & T1 & T2 & _). cbv zeta in *.
  fold (mac_tci_an h) in T2. rewrite T2. destruct (mac_ptype h); reflexivity.
Qed.

Theorem mac_dec_enc h rest : wf_mac h = true ->
  exists e, mac_to_bytes h = Some e /\ len e = mac_header_len h
    /\ mac_from_slice (e ++ rest) = Ok h /\ drop (mac_header_len h) (e ++ rest) = rest
    /\ mac_read (e ++ rest) = Ok (h, rest).
Proof.
  intros W. exists (mac_enc h). split; [apply mac_to_bytes_enc|]. split; [apply len_mac_enc|].
  destruct (proj1 (wf_mac_iff h) W) as (WP & WA & WS & WN & WC & WX).
  destruct (mac_tci_facts (mac_an h) (mac_userdata_changed (mac_ptype h)) (mac_encrypted (mac_ptype h)) (mac_scb h)
              (mac_sci_some (mac_sci h)) (mac_endstation_id h) WA) as (T0 & T1 & _). cbv zeta in *.
  fold (mac_tci_an h) in T0, T1.
  pose proof (mac_required_enc h WA) as RQ. pose proof (mac_unmod_flag h WA) as UF.
  pose proof (mac_to_header_enc h W) as HD.
  destruct (mac_enc_head h) as (b2 & b3 & b4 & b5 & HF).
  assert (SL : band (band (mac_short_len h) 63) 63 = mac_short_len h) by (rewrite !(mac_sl_fact _ WS); reflexivity).
  split; [|split].
  - unfold mac_from_slice.
    rewrite (mac_slice_app (mac_enc h) rest (mac_tci_an h) (band (mac_short_len h) 63)).
    + exact HD.
    + unfold mac_enc. rewrite HF. reflexivity.
    + unfold mac_enc. rewrite HF. reflexivity.
    + exact T1.
    + rewrite UF, SL. exact WX.
    + rewrite RQ, len_mac_enc. reflexivity.
  - apply drop_app_len. symmetry. apply len_mac_enc.
  - unfold mac_read, mac_enc. rewrite <- app_assoc.
    rewrite (read_exact_app (mac_first h)) by (symmetry; apply len_mac_first).
    rewrite HF. mac_rd. rewrite T1, UF, SL, WX, RQ. rewrite <- HF.
    pose proof (len_mac_more h) as LM.
    assert (HL : 6 <= mac_header_len h <= 16).
    { unfold mac_header_len. destruct (mac_sci_some (mac_sci h)), (mac_is_unmod (mac_ptype h)); lia. }
    assert (SR : slice_range (mac_first h ++ mac_more h ++ zeros (16 - 6 - len (mac_more h))) 0 (mac_header_len h)
                 = Some (mac_enc h)).
    { unfold slice_range. rewrite !len_app, len_zeros, len_mac_first, LM. cbn [drop skipn N.to_nat].
      replace (0 <=? mac_header_len h) with true by (symmetry; apply N.leb_le; lia).
      replace (mac_header_len h <=? 6 + (mac_header_len h - 6 + (16 - 6 - (mac_header_len h - 6)))) with true
        by (symmetry; apply N.leb_le; lia).
      cbn [andb]. f_equal. rewrite N.sub_0_r, app_assoc. apply take_app_len.
      fold (mac_enc h). rewrite len_mac_enc. reflexivity. }
    destruct (N.ltb_spec 6 (mac_header_len h)) as [G|G].
    + replace (mac_header_len h <=? 16) with true by (symmetry; apply N.leb_le; lia).
      rewrite (read_exact_app (mac_more h)) by (symmetry; exact LM).
      rewrite SR, HD. reflexivity.
    + assert (ME : mac_more h = []) by (apply len_0_nil; lia).
      rewrite ME in *. cbn [app]. cbn [app] in SR. rewrite SR, HD. reflexivity.
Qed.

(* the excluded values: in range of the Rust types, ptype Unmodified, short_len 1:
   encoded by to_bytes, rejected by both decoders *)
Lemma mac_in_range_facts h : mac_in_range h = true ->
  mac_wf_ptype (mac_ptype h) = true /\ mac_an h < 4 /\ mac_short_len h < 64 /\ mac_packet_nr h < 4294967296
  /\ mac_wf_sci (mac_sci h) = true.
Proof. unfold mac_in_range. rewrite !andb_true_iff, !N.ltb_lt. tauto. Qed.

Theorem mac_excluded_rejected h rest : mac_in_range h = true -> wf_mac h = false ->
  exists e, mac_to_bytes h = Some e /\ mac_from_slice (e ++ rest) = Err (EContent 1)
            /\ mac_read (e ++ rest) = Err (EContent 1).
Proof.
  intros R NW. exists (mac_enc h). split; [apply mac_to_bytes_enc|].
  destruct (mac_in_range_facts h R) as (WP & WA & WS & WN & WC).
  assert (WX : (mac_is_unmod (mac_ptype h) && (mac_short_len h =? 1))%bool = true).
  { unfold wf_mac in NW. fold (mac_in_range h) in NW. rewrite R in NW. cbn [andb] in NW.
    apply negb_false_iff in NW. exact NW. }
  destruct (mac_tci_facts (mac_an h) (mac_userdata_changed (mac_ptype h)) (mac_encrypted (mac_ptype h)) (mac_scb h)
              (mac_sci_some (mac_sci h)) (mac_endstation_id h) WA) as (T0 & T1 & _). cbv zeta in *.
  fold (mac_tci_an h) in T0, T1.
  pose proof (mac_unmod_flag h WA) as UF.
  destruct (mac_enc_head h) as (b2 & b3 & b4 & b5 & HF).
  assert (SL : band (band (mac_short_len h) 63) 63 = mac_short_len h) by (rewrite !(mac_sl_fact _ WS); reflexivity).
  pose proof WX as WX'. apply andb_true_iff in WX'. destruct WX' as [WU W1].
  split.
  - unfold mac_from_slice, mac_slice_from_slice. rewrite len_app, len_mac_enc.
    replace (mac_header_len h + len rest <? 6) with false
      by (symmetry; apply N.ltb_ge; unfold mac_header_len; lia).
    unfold mac_enc. rewrite <- app_assoc, HF. cbn [app]. mac_rd.
    rewrite T1, UF, WU, SL, W1. reflexivity.
  - unfold mac_read, mac_enc. rewrite <- app_assoc.
    rewrite (read_exact_app (mac_first h)) by (symmetry; apply len_mac_first).
    rewrite HF. mac_rd. rewrite T1, UF, SL, WX. reflexivity.
Qed.

(* ---- decode then encode ---- *)
Lemma mac_keep_mask_explicit6 : mac_keep_mask 6 = [255; 63; 255; 255; 255; 255].
Proof. reflexivity. Qed.

Ltac mac_list_more r L :=
  let x := fresh "x" in destruct r as [|x r]; [vm_compute in L; discriminate|].

Theorem mac_enc_dec bs h : bytes_ok bs -> mac_from_slice bs = Ok h ->
  wf_mac h = true /\ mac_header_len h <= len bs
  /\ exists e, mac_to_bytes h = Some e
       /\ agree (mac_keep_mask (mac_header_len h)) e (take (mac_header_len h) bs)
       /\ mac_from_slice (e ++ drop (mac_header_len h) bs) = Ok h.
Proof.
  intros OK H.
  assert (KEY : wf_mac h = true /\ mac_header_len h <= len bs
                /\ agree (mac_keep_mask (mac_header_len h)) (mac_enc h) (take (mac_header_len h) bs)).
  2:{ destruct KEY as (WF & HL & AG). split; [exact WF|]. split; [exact HL|].
      exists (mac_enc h). split; [apply mac_to_bytes_enc|]. split; [exact AG|].
      destruct (mac_dec_enc h (drop (mac_header_len h) bs) WF) as (e & E1 & _ & E2 & _).
      rewrite mac_to_bytes_enc in E1. apply Some_inj in E1. subst e. exact E2. }
  unfold mac_from_slice, mac_slice_from_slice in H.
  destruct (len bs <? 6) eqn:L; [discriminate|].
  destruct bs as [|b0 [|b1 [|b2 [|b3 [|b4 [|b5 r]]]]]]; try (vm_compute in L; discriminate).
  clear L. revert H. mac_rd. intros H.
  destruct (nz (band b0 128)) eqn:V; [discriminate|].
  pose proof OK as OK'. bytes_ok_split OK'.
  destruct (mac_Q0_facts b0 B V) as (Q1 & Q2 & Q3). cbv zeta in Q1, Q2.
  destruct (mac_Q1_facts b1 B0) as (S1 & S2).
  pose proof (be32_bound b2 b3 b4 b5 B1 B2 B3 B4) as PN.
  pose proof (u32_to_be_be32 b2 b3 b4 b5 B1 B2 B3 B4) as PNE.
  unfold mac_required_len in H. rewrite Q2 in H.
  destruct (nz (band b0 8)) eqn:E8, (nz (band b0 4)) eqn:E4, (nz (band b0 32)) eqn:E32;
    cbn [negb andb mac_ptype_of mac_userdata_changed mac_encrypted] in *.
  all: try (destruct (band b1 63 =? 1) eqn:SL1; [discriminate|]).
  all: match type of H with context [len ?s <? ?n] => destruct (len s <? n) eqn:L; [discriminate|] end.
  (* 14 bytes: e/c set, sci *)
  1,3,5: do 8 (mac_list_more r L).
  (* 16 bytes *)
  7: do 10 (mac_list_more r L).
  (* 8 bytes *)
  8: do 2 (mac_list_more r L).
  all: clear L;
    match type of H with context [mac_to_header (take ?n ?s)] =>
      let t := eval cbv [take firstn N.to_nat Pos.to_nat Pos.iter_op Nat.add Init.Nat.add N.add Pos.add Pos.succ] in (take n s) in
      change (take n s) with t in H end; revert H;
    unfold mac_to_header, mac_sl_ptype, mac_sl_sci, mac_rd16; mac_rd; rewrite ?E8, ?E4, ?E32; cbv iota beta;
    intros H; apply Ok_inj in H; subst h;
    unfold wf_mac, mac_header_len, mac_enc, mac_first, mac_more, mac_tci_an;
    cbn [mac_ptype mac_an mac_short_len mac_packet_nr mac_sci mac_scb mac_endstation_id
         mac_sci_some mac_is_unmod mac_wf_ptype mac_wf_sci mac_userdata_changed mac_encrypted andb negb].
  all: rewrite ?Q1, ?S2, ?PNE.
  all: bytes_ok_split OK'.
  all: apply N.ltb_lt in Q3, S1, PN.
  all: split; [rewrite ?Q3, ?S1, ?PN, ?SL1; cbn [andb negb];
    try (match goal with |- context [of_be ?l] =>
           let X := fresh "X" in
           assert (X : of_be l < 18446744073709551616)
             by (apply of_be8_bound; repeat (apply bytes_ok_explicit_cons; [assumption|]); constructor);
           apply N.ltb_lt in X; rewrite X end);
    try (match goal with |- context [be16 ?a ?b <? _] =>
           let X := fresh "X" in
           assert (X : be16 a b < 65536) by (apply be16_bound; assumption);
           apply N.ltb_lt in X; rewrite X end);
    reflexivity|].
  all: split; [rewrite !len_cons; lia|].
  all: match goal with |- context [mac_keep_mask ?n] =>
         let m := eval vm_compute in (mac_keep_mask n) in change (mac_keep_mask n) with m end;
       match goal with |- context [take ?n ?s] =>
         let t := eval cbv [take firstn N.to_nat Pos.to_nat Pos.iter_op Nat.add Init.Nat.add N.add Pos.add Pos.succ] in (take n s) in
         change (take n s) with t end.
  all: apply agree_of_masked; [reflexivity|].
  all: cbn [masked app]; rewrite !land_255 by assumption.
  all: try (rewrite to_be8_of_be by (repeat (apply bytes_ok_explicit_cons; [assumption|]); constructor)).
  all: try (rewrite u16_to_be_be16 by assumption).
  all: reflexivity.
Qed.

(* ---- the serialiser writes the IEEE 802.1AE SecTAG layout ---- *)
From EP Require Import Roundtrip.Spec Roundtrip.SpecLinkNet.

Definition mac_PL (an : N) : bool :=
  all_bool (fun c => all_bool (fun e => all_bool (fun scb => all_bool (fun sc => all_bool (fun es =>
    mac_tci_of an c e scb sc es =? bit es * 64 + bit sc * 32 + bit scb * 16 + bit e * 8 + bit c * 4 + an))))).
Lemma mac_sweepPL : all_below 4 mac_PL = true.
Proof. vm_compute. reflexivity. Qed.

Definition mac_et_opt (p : MacsecPType) : option N := match p with MacUnmodified e => Some e | _ => None end.

Theorem mac_spec h : wf_mac h = true ->
  mac_to_bytes h = Some (macsec_layout (mac_endstation_id h) (mac_sci_some (mac_sci h)) (mac_scb h)
    (mac_encrypted (mac_ptype h)) (mac_userdata_changed (mac_ptype h)) (mac_an h) (mac_short_len h)
    (mac_packet_nr h) (mac_sci h) (mac_et_opt (mac_ptype h))).
Proof.
  intros W. rewrite mac_to_bytes_enc. f_equal.
  destruct (proj1 (wf_mac_iff h) W) as (WP & WA & WS & WN & WC & WX).
  pose proof (all_below_spec 4 mac_PL mac_sweepPL (mac_an h) ltac:(lia)) as S. unfold mac_PL in S.
  pose proof (all_bool_spec _ (all_bool_spec _ (all_bool_spec _ (all_bool_spec _ (all_bool_spec _ S
    (mac_userdata_changed (mac_ptype h))) (mac_encrypted (mac_ptype h))) (mac_scb h)) (mac_sci_some (mac_sci h)))
    (mac_endstation_id h)) as S'. cbv beta in S'. apply N.eqb_eq in S'.
  unfold mac_enc, mac_first, mac_more, macsec_layout, mac_tci_an. rewrite S', (mac_sl_fact _ WS).
  destruct h as [p es scb an sl pn sci]. destruct p, sci; reflexivity.
Qed.
