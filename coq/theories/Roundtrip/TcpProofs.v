(* Round trip of TcpHeader, and its serialiser against the RFC 793 layout. *)
From EP Require Import Base.Bytes Roundtrip.Common Roundtrip.CommonProofs Roundtrip.Tcp Roundtrip.Spec.
From Coq Require Import ZArith Lia ZifyN.
Local Open Scope N_scope.

(* Octets 12 and 13 (data offset, flags) are computed with shifts and masks: their facts are
   checked on every value, 41 options lengths x 2 for the encoder, 256 octets for the decoder. *)
Definition byte12_of (ol : N) (n : bool) : N :=
  let value := band (shl8 (as_u8 (5 + shr ol 2)) 4) 240 in if n then bor value 1 else value.
Definition byte13_of (f s r p a u e c : bool) : N :=
  let v := 0 in
  let v := if f then bor v 1 else v in
  let v := if s then bor v 2 else v in
  let v := if r then bor v 4 else v in
  let v := if p then bor v 8 else v in
  let v := if a then bor v 16 else v in
  let v := if u then bor v 32 else v in
  let v := if e then bor v 64 else v in
  let v := if c then bor v 128 else v in v.

Lemma byte12_is h : byte12 h = byte12_of (o_len (options h)) (ns h).
Proof. reflexivity. Qed.
Lemma byte13_is h : byte13 h = byte13_of (fin h) (syn h) (rst h) (psh h) (ack h) (urg h) (ece h) (cwr h).
Proof. reflexivity. Qed.

(* the octet written for options length ol and NS flag n is (5 + ol/4) * 16 + n, and both ways the
   decoders read the data offset back give 20 + ol *)
Definition P12 (ol : N) : bool :=
  if ol mod 4 =? 0 then
    all_bool (fun n =>
      let b := byte12_of ol n in
      (b =? (5 + ol / 4) * 16 + bit n)
      && (shr (band b 240) 2 =? 20 + ol) && (shr (band b 240) 4 * 4 =? 20 + ol)
      && Bool.eqb (nz (band b 1)) n && (b <? 256) && (shl8 (shr (band b 240) 4 - 5) 2 =? ol)
      && negb (shr (band b 240) 4 <? 5))
  else true.
Lemma sweep12 : all_below 41 P12 = true.
Proof. vm_compute. reflexivity. Qed.

Lemma byte12_enc ol n : ol <= 40 -> ol mod 4 = 0 ->
  let b := byte12_of ol n in
  b = (5 + ol / 4) * 16 + bit n /\
  shr (band b 240) 2 = 20 + ol /\ shr (band b 240) 4 * 4 = 20 + ol /\ nz (band b 1) = n /\ b < 256
  /\ shl8 (shr (band b 240) 4 - 5) 2 = ol /\ (shr (band b 240) 4 <? 5) = false.
Proof.
  intros H1 H2. pose proof (all_below_spec 41 P12 sweep12 ol ltac:(lia)) as S.
  unfold P12 in S. rewrite H2 in S. change (0 =? 0) with true in S. cbv iota in S.
  pose proof (all_bool_spec _ S n) as S'. cbv beta in S'. bsplit S'.
  apply negb_true_iff in S'1.
  cbv zeta. repeat split; assumption.
Qed.

Lemma byte12_dec ol n : ol <= 40 -> ol mod 4 = 0 ->
  let b := byte12_of ol n in
  shr (band b 240) 2 = 20 + ol /\ shr (band b 240) 4 * 4 = 20 + ol /\ nz (band b 1) = n /\ b < 256
  /\ shl8 (shr (band b 240) 4 - 5) 2 = ol /\ (shr (band b 240) 4 <? 5) = false.
Proof. intros H1 H2. exact (proj2 (byte12_enc ol n H1 H2)). Qed.

(* octet 13 for each of the 256 flag settings: every flag is read back from its bit, and the octet
   is the RFC 793 flags field *)
Lemma byte13_enc f s r p a u e c :
  let b := byte13_of f s r p a u e c in
  (nz (band b 1) = f /\ nz (band b 2) = s /\ nz (band b 4) = r /\ nz (band b 8) = p /\
   nz (band b 16) = a /\ nz (band b 32) = u /\ nz (band b 64) = e /\ nz (band b 128) = c /\ b < 256) /\
  b = bit c * 128 + bit e * 64 + bit u * 32 + bit a * 16 + bit p * 8 + bit r * 4 + bit s * 2 + bit f.
Proof. destruct f, s, r, p, a, u, e, c; vm_compute; repeat split; reflexivity. Qed.

Lemma byte13_dec f s r p a u e c :
  let b := byte13_of f s r p a u e c in
  nz (band b 1) = f /\ nz (band b 2) = s /\ nz (band b 4) = r /\ nz (band b 8) = p /\
  nz (band b 16) = a /\ nz (band b 32) = u /\ nz (band b 64) = e /\ nz (band b 128) = c /\ b < 256.
Proof. exact (proj1 (byte13_enc f s r p a u e c)). Qed.

Definition Q12 (b : N) : bool :=
  let hl := shr (band b 240) 2 in
  if hl <? 20 then true
  else (byte12_of (as_u8 (hl - 20)) (nz (band b 1)) =? N.land b 241)
       && (shr (band b 240) 4 * 4 =? hl) && (hl <=? 60) && ((hl - 20) mod 4 =? 0)
       && (shl8 (shr (band b 240) 4 - 5) 2 =? hl - 20) && negb (shr (band b 240) 4 <? 5).
Lemma sweepQ12 : all_below 256 Q12 = true.
Proof. vm_compute. reflexivity. Qed.

Definition Q12' (b : N) : bool :=
  let d := shr (band b 240) 4 in
  (d <? 5) || negb (shr (band b 240) 2 <? 20).
Lemma sweepQ12' : all_below 256 Q12' = true.
Proof. vm_compute. reflexivity. Qed.

Definition Q13 (b : N) : bool :=
  byte13_of (nz (band b 1)) (nz (band b 2)) (nz (band b 4)) (nz (band b 8))
            (nz (band b 16)) (nz (band b 32)) (nz (band b 64)) (nz (band b 128)) =? b.
Lemma sweepQ13 : all_below 256 Q13 = true.
Proof. vm_compute. reflexivity. Qed.

Lemma len_fixed h : len (fixed_bytes h) = 20.
Proof. reflexivity. Qed.

Lemma fixed_explicit h : fixed_bytes h =
  [(source_port h / 256) mod 256; source_port h mod 256;
   (destination_port h / 256) mod 256; destination_port h mod 256;
   (sequence_number h / 256 / 256 / 256) mod 256; (sequence_number h / 256 / 256) mod 256;
   (sequence_number h / 256) mod 256; sequence_number h mod 256;
   (acknowledgment_number h / 256 / 256 / 256) mod 256; (acknowledgment_number h / 256 / 256) mod 256;
   (acknowledgment_number h / 256) mod 256; acknowledgment_number h mod 256;
   byte12 h; byte13 h;
   (window_size h / 256) mod 256; window_size h mod 256;
   (checksum h / 256) mod 256; checksum h mod 256;
   (urgent_pointer h / 256) mod 256; urgent_pointer h mod 256].
Proof. reflexivity. Qed.

Lemma opt_wf_facts o : wf_opt o = true ->
  o_len o <= 40 /\ o_len o mod 4 = 0 /\ len (o_buf o) = 40 /\ bytes_ok (o_buf o).
Proof. unfold wf_opt. intros W. bsplit W. repeat split; try assumption. apply bytes_okb_spec; assumption. Qed.

Lemma wf_tcp_facts h : wf_tcp h = true ->
  source_port h < 65536 /\ destination_port h < 65536 /\ sequence_number h < 4294967296 /\
  acknowledgment_number h < 4294967296 /\ window_size h < 65536 /\ checksum h < 65536 /\
  urgent_pointer h < 65536 /\ wf_opt (options h) = true.
Proof. unfold wf_tcp. intros W. bsplit W. repeat split; assumption. Qed.

Lemma to_bytes_wf h : wf_tcp h = true ->
  to_bytes h = Some (fixed_bytes h ++ take (o_len (options h)) (o_buf (options h))).
Proof.
  intros W. destruct (wf_tcp_facts h W) as (_ & _ & _ & _ & _ & _ & _ & WO).
  destruct (opt_wf_facts _ WO) as (OL & OM & BL & BO).
  unfold to_bytes, header_len. rewrite len_app, len_fixed, BL.
  replace (20 + 40 <=? 60) with true by (symmetry; apply N.leb_le; lia).
  replace (20 + o_len (options h) <=? 20 + 40) with true by (symmetry; apply N.leb_le; lia).
  cbn [andb]. f_equal. apply take_app_more. rewrite len_fixed. reflexivity.
Qed.

Lemma as_slice_wf h : wf_tcp h = true ->
  opt_as_slice (options h) = Some (take (o_len (options h)) (o_buf (options h))).
Proof.
  intros W. destruct (wf_tcp_facts h W) as (_ & _ & _ & _ & _ & _ & _ & WO).
  destruct (opt_wf_facts _ WO) as (OL & OM & BL & BO).
  unfold opt_as_slice. rewrite BL.
  replace (o_len (options h) <=? 40) with true by (symmetry; apply N.leb_le; lia). reflexivity.
Qed.

Lemma len_take_opts h : wf_tcp h = true -> len (take (o_len (options h)) (o_buf (options h))) = o_len (options h).
Proof.
  intros W. destruct (wf_tcp_facts h W) as (_ & _ & _ & _ & _ & _ & _ & WO).
  destruct (opt_wf_facts _ WO) as (OL & OM & BL & BO).
  rewrite len_take, BL. lia.
Qed.

Theorem tcp_ser_agree h out : wf_tcp h = true ->
  exists e, to_bytes h = Some e /\ write out h = Some (out ++ e) /\ len e = header_len h.
Proof.
  intros W. exists (fixed_bytes h ++ take (o_len (options h)) (o_buf (options h))).
  split; [apply to_bytes_wf; assumption|]. split.
  - unfold write. rewrite (as_slice_wf h W).
    destruct (N.eqb_spec (len (take (o_len (options h)) (o_buf (options h)))) 0) as [E|E]; [|reflexivity].
    apply len_0_nil in E. rewrite E. reflexivity.
  - rewrite len_app, len_fixed, (len_take_opts h W). reflexivity.
Qed.

(* slice_from_slice on  F ++ O ++ rest  *)
Lemma slice_from_slice_app F O rest b12 :
  len F = 20 -> rd F 12 = Some b12 -> shr (band b12 240) 2 = 20 + len O ->
  slice_from_slice (F ++ O ++ rest) = Ok (F ++ O).
Proof.
  intros LF R H. unfold slice_from_slice.
  rewrite !len_app, LF.
  replace (20 + (len O + len rest) <? 20) with false by (symmetry; apply N.ltb_ge; lia).
  assert (R' : rd (F ++ O ++ rest) 12 = Some b12).
  { unfold rd in *. rewrite nth_error_app1; [assumption|]. apply nth_error_Some. congruence. }
  rewrite R', H.
  replace (20 + len O <? 20) with false by (symmetry; apply N.ltb_ge; lia).
  replace (20 + (len O + len rest) <? 20 + len O) with false by (symmetry; apply N.ltb_ge; lia).
  f_equal. rewrite app_assoc. apply take_app_len. rewrite len_app, LF. reflexivity.
Qed.

Lemma slice_range_app F O n m : len F = n -> m = n + len O -> slice_range (F ++ O) n m = Some O.
Proof.
  intros LF ->. unfold slice_range. rewrite len_app, LF.
  replace (n <=? n + len O) with true by (symmetry; apply N.leb_le; lia).
  replace (n + len O <=? n + len O) with true by (symmetry; apply N.leb_le; lia).
  cbn [andb]. f_equal. rewrite (drop_app_len F O n) by (symmetry; exact LF).
  apply take_all. lia.
Qed.

Theorem tcp_dec_enc h rest : wf_tcp h = true ->
  exists e, to_bytes h = Some e /\ from_slice (e ++ rest) = Ok (norm h, rest)
            /\ read (e ++ rest) = Ok (norm h, rest) /\ tcp_eqb (norm h) h = true.
Proof.
  intros W. destruct (wf_tcp_facts h W) as (R1 & R2 & R3 & R4 & R5 & R6 & R7 & WO).
  destruct (opt_wf_facts _ WO) as (OL & OM & BL & BO).
  set (O := take (o_len (options h)) (o_buf (options h))).
  assert (LO : len O = o_len (options h)) by (apply len_take_opts; assumption).
  exists (fixed_bytes h ++ O). split; [apply to_bytes_wf; assumption|].
  destruct (byte12_dec (o_len (options h)) (ns h) OL OM) as (D1 & D2 & D3 & D4 & D5 & D6).
  destruct (byte13_dec (fin h) (syn h) (rst h) (psh h) (ack h) (urg h) (ece h) (cwr h))
    as (F1 & F2 & F3 & F4 & F5 & F6 & F7 & F8 & F9).
  rewrite <- byte12_is in D1, D2, D3, D4, D5, D6. rewrite <- byte13_is in F1, F2, F3, F4, F5, F6, F7, F8, F9.
  cbv zeta in *.
  assert (HDR : to_header (fixed_bytes h ++ O) = Ok (norm h)).
  { assert (SR : slice_range (fixed_bytes h ++ O) 20 (shr (band (byte12 h) 240) 4 * 4) = Some O).
    { apply slice_range_app; [apply len_fixed|]. rewrite D2, LO. reflexivity. }
    revert SR. rewrite fixed_explicit. cbn [app]. intros SR.
    unfold to_header. rewrite SR.
    replace (40 <? len O) with false by (symmetry; apply N.ltb_ge; lia).
    f_equal. unfold norm, norm_opt.
    rewrite !u16_be_roundtrip, !u32_be_roundtrip by assumption.
    rewrite D3, F1, F2, F3, F4, F5, F6, F7, F8. fold O. rewrite LO.
    unfold as_u8. rewrite (N.mod_small (o_len (options h))) by lia. reflexivity. }
  split; [|split].
  - unfold from_slice. rewrite <- app_assoc.
    rewrite (slice_from_slice_app (fixed_bytes h) O rest (byte12 h)); [|apply len_fixed|reflexivity|rewrite D1, LO; reflexivity].
    rewrite HDR. unfold slice_from. rewrite !len_app, len_fixed.
    replace (20 + len O <=? 20 + (len O + len rest)) with true by (symmetry; apply N.leb_le; lia).
    rewrite app_assoc, (drop_app_len (fixed_bytes h ++ O) rest) by (rewrite len_app, len_fixed; reflexivity).
    reflexivity.
  - unfold read, read_exact. rewrite <- app_assoc, !len_app, len_fixed.
    replace (20 + (len O + len rest) <? 20) with false by (symmetry; apply N.ltb_ge; lia).
    rewrite (take_app_len (fixed_bytes h)) by (symmetry; apply len_fixed).
    rewrite (drop_app_len (fixed_bytes h)) by (symmetry; apply len_fixed).
    rewrite fixed_explicit. cbv iota beta.
    rewrite D6, D5.
    destruct (N.ltb_spec 0 (o_len (options h))) as [Hpos|Hz].
    + replace (o_len (options h) <=? 40) with true by (symmetry; apply N.leb_le; lia).
      rewrite len_app, LO.
      replace (o_len (options h) + len rest <? o_len (options h)) with false by (symmetry; apply N.ltb_ge; lia).
      rewrite (take_app_len O rest) by (symmetry; exact LO).
      rewrite (drop_app_len O rest) by (symmetry; exact LO).
      f_equal. unfold norm, norm_opt.
      rewrite !u16_be_roundtrip, !u32_be_roundtrip by assumption.
      rewrite D3, F1, F2, F3, F4, F5, F6, F7, F8. reflexivity.
    + assert (Z : o_len (options h) = 0) by lia.
      assert (ON : O = []) by (apply len_0_nil; lia). rewrite ON. cbn [app].
      f_equal. unfold norm, norm_opt.
      rewrite !u16_be_roundtrip, !u32_be_roundtrip by assumption.
      rewrite D3, F1, F2, F3, F4, F5, F6, F7, F8. fold O. rewrite ON, Z. reflexivity.
  - unfold tcp_eqb, norm. cbn [source_port destination_port sequence_number acknowledgment_number
      ns fin syn rst psh ack urg ece cwr window_size checksum urgent_pointer options].
    rewrite !N.eqb_refl, !Bool.eqb_reflx. cbn [andb].
    unfold opt_eqb. rewrite (as_slice_wf h W). unfold opt_as_slice, norm_opt. cbn [o_len o_buf].
    fold O. rewrite len_app, LO, len_zeros.
    replace (o_len (options h) <=? o_len (options h) + (40 - o_len (options h))) with true by (symmetry; apply N.leb_le; lia).
    rewrite (take_app_len O) by (symmetry; exact LO). apply bytes_eqb_refl.
Qed.

Lemma Q12_facts b : b < 256 -> (shr (band b 240) 2 <? 20) = false ->
  let hl := shr (band b 240) 2 in
  byte12_of (as_u8 (hl - 20)) (nz (band b 1)) = N.land b 241 /\ shr (band b 240) 4 * 4 = hl
  /\ hl <= 60 /\ (hl - 20) mod 4 = 0.
Proof.
  intros Hb Hh. pose proof (all_byte Q12 sweepQ12 b Hb) as S. unfold Q12 in S.
  cbv zeta in S. rewrite Hh in S. bsplit S. cbv zeta. repeat split; assumption.
Qed.

Lemma Q13_fact b : b < 256 ->
  byte13_of (nz (band b 1)) (nz (band b 2)) (nz (band b 4)) (nz (band b 8))
            (nz (band b 16)) (nz (band b 32)) (nz (band b 64)) (nz (band b 128)) = b.
Proof. intros Hb. pose proof (all_byte Q13 sweepQ13 b Hb) as S. unfold Q13 in S. now apply N.eqb_eq in S. Qed.

Theorem tcp_enc_dec bs h rest : bytes_ok bs -> from_slice bs = Ok (h, rest) ->
  wf_tcp h = true /\ norm h = h /\
  exists e, to_bytes h = Some e /\ bs = take (header_len h) bs ++ rest
            /\ agree (keep_mask (header_len h)) e (take (header_len h) bs)
            /\ from_slice e = Ok (h, []).
Proof.
  intros OK H. unfold from_slice, slice_from_slice in H.
  destruct (len bs <? 20) eqn:L; [discriminate|].
  destruct bs as [|b0 [|b1 [|b2 [|b3 [|b4 [|b5 [|b6 [|b7 [|b8 [|b9 [|b10 [|b11 [|b12 [|b13 [|b14
    [|b15 [|b16 [|b17 [|b18 [|b19 r]]]]]]]]]]]]]]]]]]]]; try (vm_compute in L; discriminate).
  clear L.
  match type of H with context [rd ?s 12] => change (rd s 12) with (Some b12) in H end.
  cbv iota beta zeta in H.
  destruct (shr (band b12 240) 2 <? 20) eqn:L1; [discriminate|].
  set (hl := shr (band b12 240) 2) in *.
  set (bs := b0 :: b1 :: b2 :: b3 :: b4 :: b5 :: b6 :: b7 :: b8 :: b9 :: b10 :: b11 :: b12 :: b13
             :: b14 :: b15 :: b16 :: b17 :: b18 :: b19 :: r) in *.
  destruct (len bs <? hl) eqn:L2; [discriminate|].
  apply N.ltb_ge in L2. pose proof L1 as L1'. apply N.ltb_ge in L1'.
  pose proof OK as OK'. unfold bs in OK'. bytes_ok_split OK'.
  destruct (Q12_facts b12 B11 L1) as (Q1 & Q2 & Q3 & Q4). fold hl in Q1, Q2, Q3, Q4.
  set (F := [b0; b1; b2; b3; b4; b5; b6; b7; b8; b9; b10; b11; b12; b13; b14; b15; b16; b17; b18; b19]).
  assert (EB : bs = F ++ r) by reflexivity.
  set (O := take (hl - 20) r).
  assert (LR : hl - 20 <= len r).
  { rewrite EB, len_app in L2. change (len F) with 20 in L2. clear - L2 L1'. lia. }
  assert (LO : len O = hl - 20) by (unfold O; rewrite len_take; clear - LR; lia).
  assert (TK : take hl bs = F ++ O).
  { rewrite EB. apply take_app_more. change (len F) with 20. clear - L1'. lia. }
  assert (BOo : bytes_ok O) by (unfold O; apply bytes_ok_take; exact OK').
  rewrite TK in H.
  assert (SR : slice_range (F ++ O) 20 (shr (band b12 240) 4 * 4) = Some O).
  { apply slice_range_app; [reflexivity|]. rewrite Q2, LO. clear - L1'. lia. }
  unfold F in SR, H. cbn [app] in SR, H. unfold to_header in H. rewrite SR in H.
  replace (40 <? len O) with false in H by (symmetry; apply N.ltb_ge; clear - LO Q3; lia).
  unfold slice_from in H.
  match type of H with context [len ?s <=? len bs] => replace (len s) with hl in H end.
  2:{ change (hl = len (F ++ O)). rewrite len_app, LO. change (len F) with 20. clear - L1'. lia. }
  replace (hl <=? len bs) with true in H by (symmetry; apply N.leb_le; exact L2).
  injection H as Hh Hrest.
  assert (Hl : header_len h = hl).
  { rewrite <- Hh. unfold header_len. cbn [options o_len]. unfold as_u8. rewrite LO.
    rewrite N.mod_small by (clear - Q3; lia). clear - L1'. lia. }
  assert (WF : wf_tcp h = true).
  { rewrite <- Hh. unfold wf_tcp, wf_opt.
    cbn [source_port destination_port sequence_number acknowledgment_number
      window_size checksum urgent_pointer options o_len o_buf].
    pose proof (be16_bound b0 b1 B B0) as X1. pose proof (be16_bound b2 b3 B1 B2) as X2.
    pose proof (be32_bound b4 b5 b6 b7 B3 B4 B5 B6) as X3.
    pose proof (be32_bound b8 b9 b10 b11 B7 B8 B9 B10) as X4.
    pose proof (be16_bound b14 b15 B13 B14) as X5. pose proof (be16_bound b16 b17 B15 B16) as X6.
    pose proof (be16_bound b18 b19 B17 B18) as X7.
    apply N.ltb_lt in X1, X2, X3, X4, X5, X6, X7. rewrite X1, X2, X3, X4, X5, X6, X7. cbn [andb].
    unfold as_u8. rewrite LO, (N.mod_small (hl - 20)) by (clear - Q3; lia).
    replace (hl - 20 <=? 40) with true by (symmetry; apply N.leb_le; clear - Q3; lia).
    rewrite Q4. change (0 =? 0) with true.
    rewrite len_app, LO, len_zeros.
    replace (hl - 20 + (40 - (hl - 20)) =? 40) with true by (symmetry; apply N.eqb_eq; clear - Q3; lia).
    cbn [andb]. apply bytes_okb_spec. apply bytes_ok_app. split; [exact BOo|apply bytes_ok_zeros]. }
  assert (NM : norm h = h).
  { rewrite <- Hh. unfold norm, norm_opt.
    cbn [source_port destination_port sequence_number acknowledgment_number ns fin syn rst psh ack urg
      ece cwr window_size checksum urgent_pointer options o_len o_buf].
    unfold as_u8. rewrite LO, (N.mod_small (hl - 20)) by (clear - Q3; lia).
    rewrite (take_app_len O) by (symmetry; exact LO). reflexivity. }
  split; [exact WF|]. split; [exact NM|].
  destruct (tcp_dec_enc h [] WF) as (e & E1 & E2 & _ & _).
  exists e. split; [exact E1|]. rewrite Hl.
  split; [rewrite <- Hrest; symmetry; apply take_drop|].
  rewrite app_nil_r, NM in E2. split; [|exact E2].
  rewrite (to_bytes_wf h WF) in E1. apply Some_inj in E1. rewrite <- E1, TK.
  apply agree_of_masked.
  - unfold keep_mask. rewrite !len_app, !len_ones, LO. change (len F) with 20. change (len [241]) with 1.
    clear - L1'. lia.
  - assert (FX : fixed_bytes h = [b0; b1; b2; b3; b4; b5; b6; b7; b8; b9; b10; b11; N.land b12 241; b13;
                                  b14; b15; b16; b17; b18; b19]).
    { rewrite fixed_explicit, byte12_is, byte13_is. rewrite <- Hh.
      cbn [source_port destination_port sequence_number acknowledgment_number ns fin syn rst psh ack urg
        ece cwr window_size checksum urgent_pointer options o_len o_buf].
      rewrite LO, Q1, (Q13_fact b13 B12).
      pose proof (u16_to_be_be16 b0 b1 B B0) as Y1. pose proof (u16_to_be_be16 b2 b3 B1 B2) as Y2.
      pose proof (u32_to_be_be32 b4 b5 b6 b7 B3 B4 B5 B6) as Y3.
      pose proof (u32_to_be_be32 b8 b9 b10 b11 B7 B8 B9 B10) as Y4.
      pose proof (u16_to_be_be16 b14 b15 B13 B14) as Y5. pose proof (u16_to_be_be16 b16 b17 B15 B16) as Y6.
      pose proof (u16_to_be_be16 b18 b19 B17 B18) as Y7.
      unfold u16_to_be, u32_to_be in Y1, Y2, Y3, Y4, Y5, Y6, Y7.
      injection Y1 as -> ->. injection Y2 as -> ->. injection Y3 as -> -> -> ->. injection Y4 as -> -> -> ->.
      injection Y5 as -> ->. injection Y6 as -> ->. injection Y7 as -> ->. reflexivity. }
    rewrite FX, <- Hh. cbn [options o_len o_buf]. unfold as_u8. rewrite LO, (N.mod_small (hl - 20)) by (clear - Q3; lia).
    rewrite (take_app_len O) by (symmetry; exact LO).
    unfold keep_mask.
    change F with ([b0; b1; b2; b3; b4; b5; b6; b7; b8; b9; b10; b11] ++ [b12] ++ [b13; b14; b15; b16; b17; b18; b19]).
    rewrite <- !app_assoc.
    change 12 with (len [b0; b1; b2; b3; b4; b5; b6; b7; b8; b9; b10; b11]).
    rewrite masked_ones_app by (repeat (apply bytes_ok_explicit_cons; [assumption|]); constructor).
    rewrite (masked_app [241] _ [b12]) by reflexivity.
    replace (hl - 13) with (len ([b13; b14; b15; b16; b17; b18; b19] ++ O)) by (rewrite len_app, LO; change (len [b13; b14; b15; b16; b17; b18; b19]) with 7; clear - L1'; lia).
    rewrite masked_ones by (repeat (apply bytes_ok_explicit_cons; [assumption|]); exact BOo).
    reflexivity.
Qed.

Lemma byte13_spec f s r p a u e c :
  byte13_of f s r p a u e c =
  bit c * 128 + bit e * 64 + bit u * 32 + bit a * 16 + bit p * 8 + bit r * 4 + bit s * 2 + bit f.
Proof. exact (proj2 (byte13_enc f s r p a u e c)). Qed.

Theorem tcp_spec h : wf_tcp h = true ->
  to_bytes h = Some (tcp_layout (source_port h) (destination_port h) (sequence_number h)
    (acknowledgment_number h) (ns h) (cwr h) (ece h) (urg h) (ack h) (psh h) (rst h) (syn h) (fin h)
    (window_size h) (checksum h) (urgent_pointer h) (take (o_len (options h)) (o_buf (options h)))).
Proof.
  intros W. rewrite (to_bytes_wf h W). f_equal.
  destruct (wf_tcp_facts h W) as (_ & _ & _ & _ & _ & _ & _ & WO).
  destruct (opt_wf_facts _ WO) as (OL & OM & BL & BO).
  unfold tcp_layout. rewrite (len_take_opts h W).
  rewrite <- byte13_spec, <- byte13_is.
  rewrite <- (proj1 (byte12_enc (o_len (options h)) (ns h) OL OM)), <- byte12_is. reflexivity.
Qed.

(* TcpOptions::try_from_slice yields a well-formed buffer that starts with the data *)
Definition T40 (n : N) : bool :=
  let l := as_u8 n in
  let r := as_u8 (shl8 (shr l 2) 2 + (if nz (band l 3) then 4 else 0)) in
  (r <=? 40) && (r mod 4 =? 0) && (n <=? r) && (r <? n + 4).
Lemma sweepT40 : all_below 41 T40 = true.
Proof. vm_compute. reflexivity. Qed.

Lemma try_from_slice_wf s o : bytes_ok s -> opt_try_from_slice s = Some o ->
  wf_opt o = true /\ len s <= o_len o < len s + 4 /\ take (len s) (o_buf o) = s.
Proof.
  intros OK H. unfold opt_try_from_slice in H.
  destruct (40 <? len s) eqn:L; [discriminate|]. apply N.ltb_ge in L.
  apply Some_inj in H. subst o. cbn [o_len o_buf].
  pose proof (all_below_spec 41 T40 sweepT40 (len s) ltac:(clear - L; lia)) as S.
  unfold T40 in S. cbv zeta in S.
  set (r := as_u8 (shl8 (shr (as_u8 (len s)) 2) 2 + (if nz (band (as_u8 (len s)) 3) then 4 else 0))) in *.
  assert (Fs : r <= 40 /\ r mod 4 = 0 /\ len s <= r /\ r < len s + 4).
  { bsplit S. repeat split; assumption. }
  destruct Fs as (T1 & T2 & T3 & T4).
  split; [|split].
  - unfold wf_opt. cbn [o_len o_buf].
    replace (r <=? 40) with true by (symmetry; apply N.leb_le; exact T1). rewrite T2.
    change (0 =? 0) with true. cbn [andb].
    rewrite len_app, len_zeros.
    replace (len s + (40 - len s) =? 40) with true by (symmetry; apply N.eqb_eq; clear - L; lia).
    cbn [andb]. apply bytes_okb_spec, bytes_ok_app. split; [assumption|apply bytes_ok_zeros].
  - clear - T3 T4. lia.
  - apply take_app_len. reflexivity.
Qed.
