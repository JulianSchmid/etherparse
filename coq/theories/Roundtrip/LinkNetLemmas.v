(* Roundtrip/LinkNetLemmas.v -- small list lemmas shared by the link / network layer C08 proofs:
   lists of a known short length are explicit; windows of a concatenation. *)
From EP Require Import Base.Bytes Roundtrip.Common Roundtrip.CommonProofs.
From Coq Require Import ZArith Lia ZifyN.
Local Open Scope N_scope.

Lemma len4_explicit {A} (l : list A) : len l = 4 -> exists a b c d, l = [a; b; c; d].
Proof.
  intros H. destruct l as [|a [|b [|c [|d [|e r]]]]]; try (vm_compute in H; discriminate).
  - eauto.
  - rewrite !len_cons in H. lia.
Qed.

Lemma len6_explicit {A} (l : list A) : len l = 6 -> exists a b c d e f, l = [a; b; c; d; e; f].
Proof.
  intros H. destruct l as [|a [|b [|c [|d [|e [|f [|g r]]]]]]]; try (vm_compute in H; discriminate).
  - eauto 7.
  - rewrite !len_cons in H. lia.
Qed.

Lemma len8_explicit {A} (l : list A) : len l = 8 -> exists a b c d e f g h, l = [a; b; c; d; e; f; g; h].
Proof.
  intros H. destruct l as [|a [|b [|c [|d [|e [|f [|g [|h [|i r]]]]]]]]]; try (vm_compute in H; discriminate).
  - eauto 9.
  - rewrite !len_cons in H. lia.
Qed.

(* [a <=? b] etc. with a proof of the relation *)
Lemma ltb_false a b : b <= a -> (a <? b) = false.
Proof. intros H. apply N.ltb_ge. exact H. Qed.
Lemma leb_true a b : a <= b -> (a <=? b) = true.
Proof. intros H. apply N.leb_le. exact H. Qed.

Lemma slice_range_mid3 (A B C : bytes) a b : len A = a -> b = a + len B -> slice_range (A ++ B ++ C) a b = Some B.
Proof.
  intros LA ->. unfold slice_range. rewrite !len_app, LA.
  rewrite (leb_true a (a + len B)) by lia. rewrite (leb_true (a + len B) (a + (len B + len C))) by lia.
  cbn [andb]. f_equal. rewrite (drop_app_len A) by (symmetry; exact LA).
  apply take_app_len. lia.
Qed.

Lemma read_exact_app' (A B : bytes) n : len A = n -> read_exact (A ++ B) n = Ok (A, B).
Proof. intros L. apply read_exact_app. symmetry. exact L. Qed.

(* the four address windows behind an 8 byte prefix *)
Lemma four_windows (F A B C D : bytes) : len F = 8 ->
  let s := F ++ A ++ B ++ C ++ D in
  slice_range s 8 (8 + len A) = Some A
  /\ slice_range s (8 + len A) (8 + len A + len B) = Some B
  /\ slice_range s (8 + len A + len B) (8 + len A + len B + len C) = Some C
  /\ slice_range s (8 + len A + len B + len C) (8 + len A + len B + len C + len D) = Some D.
Proof.
  intros LF. cbv zeta. repeat split.
  - apply slice_range_mid3; [exact LF|reflexivity].
  - rewrite (app_assoc F A). apply slice_range_mid3; [rewrite len_app, LF; reflexivity|reflexivity].
  - rewrite (app_assoc F A), (app_assoc (F ++ A) B).
    apply slice_range_mid3; [rewrite !len_app, LF; reflexivity|reflexivity].
  - rewrite (app_assoc F A), (app_assoc (F ++ A) B), (app_assoc ((F ++ A) ++ B) C).
    rewrite <- (app_nil_r D) at 1.
    apply slice_range_mid3; [rewrite !len_app, LF; reflexivity|reflexivity].
Qed.
