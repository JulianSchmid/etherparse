(* Exact idempotence of decode . write . decode for IpHeaders.
   iph_enc_dec returns `iph_written en h` (the value with the header checksum that
   Ipv4Header::write recomputes).  For a DECODED value (buffers already zero behind the visible
   part: ip4_norm / x4_norm are the identity on it) `iph_written en h = h` holds exactly when the header
   checksum field -- bytes 10-11 of the wire -- is the one calc_header_checksum() computes, and
   decode(write(decode bs)) = decode bs holds exactly then. *)
From EP Require Import Base.Bytes Checksum.Model.
From EP Require Import Roundtrip.Common Roundtrip.CommonProofs.
From EP Require Import Roundtrip.Ipv4 Roundtrip.Ipv4Proofs Roundtrip.Ipv6 Roundtrip.Ipv6Proofs.
From EP Require Import Roundtrip.Auth Roundtrip.AuthProofs Roundtrip.Exts4 Roundtrip.Exts4Proofs.
From EP Require Import Roundtrip.IpHeaders Roundtrip.IpHeadersProofs.
From EP Require ExtChain.Model Roundtrip.Exts6Proofs.
From Coq Require Import ZArith Lia ZifyN.
Local Open Scope N_scope.

(* the header checksum as it stands on the wire: bytes 10-11 (IPv4 only) *)
Definition iph_wire_checksum (bs : bytes) : option N :=
  match rd bs 10, rd bs 11 with
  | Some a, Some b => Some (be16 a b)
  | _, _ => None
  end.

Lemma ip4_set_checksum_eq_iff h ck : ip4_set_checksum h ck = h <-> i4_header_checksum h = ck.
Proof.
  split; intros H.
  - apply (f_equal i4_header_checksum) in H. cbn [ip4_set_checksum i4_header_checksum] in H. congruence.
  - destruct h as [a1 a2 a3 a4 a5 a6 a7 a8 a9 a10 a11 a12 a13]. cbn in H. subst. reflexivity.
Qed.

Lemma ip4_norm_set_checksum h ck : ip4_norm (ip4_set_checksum h ck) = ip4_set_checksum (ip4_norm h) ck.
Proof. reflexivity. Qed.

(* what a successful decode says about an IPv4 value: header and extensions come from the two part
   decoders (so they are normal and well-formed) and the checksum field is the wire's *)
Lemma iph_from_ipv4_slice_parts bs h p : bytes_ok bs -> iph_from_ipv4_slice bs = Ok (h, p) ->
  exists hd e, h = IpV4 hd e /\ wf_ip4 hd = true /\ ip4_norm hd = hd /\ x4_norm e = e
    /\ iph_wire_checksum bs = Some (i4_header_checksum hd).
Proof.
  intros OK H. destruct (iph_from_ipv4_slice_inv bs h p H) as (hd & hrest & D4 & _ & _ & TL).
  destruct (v4_tail_inv _ _ _ _ TL) as (e & n & r & DX & -> & _).
  destruct (ip4_enc_dec bs hd hrest OK D4) as (W & NM & e0 & E0 & SPL & AG & _).
  assert (OKH : bytes_ok hrest) by (rewrite SPL in OK; apply bytes_ok_app in OK; tauto).
  destruct (x4_enc_dec _ _ e n r (bytes_ok_take _ _ OKH) DX) as (_ & NX & _).
  exists hd, e. repeat split; try assumption.
  (* the checksum field = bytes 10-11 *)
  destruct (ip4_from_slice_inv bs hd hrest D4) as (b0 & _ & _ & I & L20 & LH & TH & _).
  set (hl := band b0 15 * 4) in *. ltb_t I. assert (HL : 20 <= hl) by (subst hl; lia).
  unfold iph_wire_checksum.
  rewrite <- (Lists.rd_take_lt bs hl 10) by lia. rewrite <- (Lists.rd_take_lt bs hl 11) by lia.
  unfold ip4_to_header in TH.
  destruct (take hl bs) as [|c0 [|c1 [|c2 [|c3 [|c4 [|c5 [|c6 [|c7 [|c8 [|c9 [|c10 [|c11 [|c12 [|c13 [|c14
    [|c15 [|c16 [|c17 [|c18 [|c19 os]]]]]]]]]]]]]]]]]]]]; try discriminate.
  destruct (40 <? len os); [discriminate|]. apply Ok_inj in TH. subst hd. reflexivity.
Qed.

Lemma iph_from_ipv6_slice_shape bs h p : iph_from_ipv6_slice bs = Ok (h, p) -> exists hd e, h = IpV6 hd e.
Proof.
  intros H. destruct (iph_from_ipv6_slice_inv bs h p H) as (hd & hr & A & t & ls & _ & _ & TL & _).
  destruct (v6_tail_shape _ _ _ _ _ TL) as (e & ->). eauto.
Qed.

Theorem iph_written_exact en bs h p : bytes_ok bs -> iph_from_slice bs = Ok (h, p) ->
  (iph_checksum_ok en h = true <-> iph_written en h = h)
  /\ (forall hd e, h = IpV4 hd e -> iph_wire_checksum bs = Some (i4_header_checksum hd)).
Proof.
  intros OK H. destruct (iph_from_slice_version bs _ H) as (b0 & R0 & [[V D]|[V D]]).
  - destruct (iph_from_ipv4_slice_parts bs h p OK D) as (hd & e & -> & W & NM & NX & WC).
    split; [|intros hd' e' E; injection E as <- <-; exact WC].
    destruct (iph_calc_checksum_some en hd W) as (ck & ECK & _).
    unfold iph_checksum_ok, iph_written. rewrite ECK, ip4_norm_set_checksum, NM, NX. split; intros Q.
    + ltb_t Q. f_equal. apply ip4_set_checksum_eq_iff. exact Q.
    + injection Q as Q. apply N.eqb_eq. apply (f_equal i4_header_checksum) in Q.
      cbn [ip4_set_checksum i4_header_checksum] in Q. congruence.
  - destruct (iph_from_ipv6_slice_shape bs h p D) as (hd & e & ->).
    split; [split; reflexivity|discriminate].
Qed.

(* decode . write . decode = decode  <->  the wire checksum is correct *)
Theorem iph_idempotent en bs h p : bytes_ok bs -> iph_from_slice bs = Ok (h, p) ->
  exists w cons t, iph_write en h = (w, XM.Ok tt) /\ len w = iph_header_len h
    /\ bs = cons ++ ipp_payload p ++ t /\ len cons = iph_header_len h
    /\ iph_reencodes en h cons w
    /\ (iph_from_slice (w ++ ipp_payload p ++ t) = Ok (h, p) <-> iph_checksum_ok en h = true).
Proof.
  intros OK H. destruct (iph_enc_dec en bs h p OK H) as (_ & _ & w & cons & t & EW & LW & SP & LC & RE & D).
  destruct (iph_written_exact en bs h p OK H) as [IFF _].
  exists w, cons, t. repeat split; try assumption.
  - intros D'. rewrite D in D'. apply Ok_inj in D'. injection D' as D'. apply IFF. exact D'.
  - intros CK. rewrite D. apply IFF in CK. rewrite CK. reflexivity.
Qed.

(* Positional masks for IpHeaders: where iph_reencodes compares the IPv6 extension area through the
   relation Exts6Proofs.hdr_eq, here it is compared under the positional mask x6_keep_mask of
   Roundtrip/Exts6Mask.v. *)
From EP Require Roundtrip.Exts6Mask.

Definition iph_reencodes_pos (en : endian) (h : IpHeaders) (cons w : bytes) : Prop :=
  match h with
  | IpV4 hd e => iph_reencodes en h cons w        (* byte masks + checksum bytes 10-11 already *)
  | IpV6 hd e =>
    exists xb, w = ip6_to_bytes hd ++ xb /\ take 40 cons = ip6_to_bytes hd
      /\ XM.write e (i6_next_header hd) = (xb, XM.Ok tt)
      /\ agree (Exts6Mask.x6_keep_mask e (i6_next_header hd)) xb (drop 40 cons)
  end.

(* ONE mask for the whole of IpHeaders (valid when the wire checksum is right; otherwise bytes 10-11 differ
   too: iph_reencodes) *)
Definition iph_keep_mask (h : IpHeaders) : bytes :=
  match h with
  | IpV4 hd e => ip4_keep_mask (ip4_header_len hd) ++ x4_keep_mask e
  | IpV6 hd e => ones 40 ++ Exts6Mask.x6_keep_mask e (i6_next_header hd)
  end.

Lemma app_len_inj {A} (a b x y : list A) : a ++ x = b ++ y -> len a = len b -> a = b.
Proof.
  intros E L. apply (f_equal (take (len a))) in E. rewrite take_app_exact in E.
  rewrite L, take_app_exact in E. exact E.
Qed.

Lemma iph_from_ipv6_slice_area bs hd e p : bytes_ok bs -> iph_from_ipv6_slice bs = Ok (IpV6 hd e, p) ->
  exists A t, bs = ip6_to_bytes hd ++ A ++ t /\ bytes_ok A
    /\ XM.from_slice (i6_next_header hd) A = XM.Ok (e, ipp_ip_number p, ipp_payload p).
Proof.
  intros OK H. destruct (iph_from_ipv6_slice_inv bs _ p H) as (hd' & hrest & A & t & ls & D6 & SPA & TL & _).
  destruct (ip6_enc_dec bs hd' hrest OK D6) as (W & SPL & _).
  unfold v6_tail in TL.
  destruct (of_x6 (XM.from_slice (i6_next_header hd') A)) as [[[e' n'] r']|] eqn:D; [|discriminate].
  apply of_x6_ok in D. apply Ok_inj in TL. injection TL as -> -> <-. rewrite SPA in SPL.
  exists A, t. split; [exact SPL|]. split; [|exact D].
  rewrite SPL in OK. apply bytes_ok_app in OK. destruct OK as [_ OK]. apply bytes_ok_app in OK. tauto.
Qed.

Theorem iph_enc_dec_mask en bs h p : bytes_ok bs -> iph_from_slice bs = Ok (h, p) ->
  exists w cons t, iph_write en h = (w, XM.Ok tt) /\ len w = iph_header_len h
    /\ bs = cons ++ ipp_payload p ++ t /\ len cons = iph_header_len h
    /\ iph_reencodes_pos en h cons w
    /\ len (iph_keep_mask h) = iph_header_len h
    /\ (iph_checksum_ok en h = true -> agree (iph_keep_mask h) w cons).
Proof.
  intros OK H. destruct (iph_enc_dec en bs h p OK H) as (PW & _ & w & cons & t & EW & LW & SP & LC & RE & _).
  exists w, cons, t. split; [exact EW|]. split; [exact LW|]. split; [exact SP|]. split; [exact LC|].
  destruct h as [hd e|hd e].
  - (* IPv4 *)
    unfold iph_parts_wf in PW. apply andb_true_iff in PW. destruct PW as [W WX].
    split; [exact RE|].
    destruct RE as (e0 & ck & xb & E0 & AG & ECK & EWB & EXB & AGX).
    assert (LM : len (iph_keep_mask (IpV4 hd e)) = iph_header_len (IpV4 hd e)).
    { destruct AG as (A1 & _ & _). destruct AGX as (A2 & _ & _). cbn [iph_keep_mask iph_header_len].
      rewrite len_app, <- A1, <- A2.
      destruct (ip4_ser_agree hd [] W) as (e1 & E1 & _ & L1). rewrite E0 in E1. apply Some_inj in E1. subst e1.
      rewrite L1. f_equal. cbn [iph_header_len] in LW. rewrite EWB, !len_app in LW.
      assert (L10 : len (take 10 e0 ++ u16_to_be ck ++ drop 12 e0) = len e0).
      { rewrite !len_app, len_take, len_drop. change (len (u16_to_be ck)) with 2. unfold ip4_header_len in L1. lia. }
      rewrite !len_app in L10. lia. }
    split; [exact LM|].
    intros CK. unfold iph_checksum_ok in CK. rewrite ECK in CK. ltb_t CK.
    destruct (iph_calc_checksum_some en hd W) as (ck' & ECK' & LCK). rewrite ECK in ECK'. apply Some_inj in ECK'.
    subst ck'. pose proof (ip4_set_checksum_bytes hd ck e0 W LCK E0) as SB.
    rewrite (proj2 (ip4_set_checksum_eq_iff hd ck) CK), E0 in SB. apply Some_inj in SB.
    rewrite EWB, <- SB. cbn [iph_keep_mask].
    rewrite <- (take_drop (ip4_header_len hd) cons). exact (Exts6Mask.agree_app _ _ _ _ _ _ AG AGX).
  - (* IPv6 *)
    destruct RE as (xb & EWB & T40 & EXW & HE).
    destruct (iph_from_slice_version bs _ H) as (b0 & R0 & [[V D]|[V D]]).
    { destruct (iph_from_ipv4_slice_parts bs _ p OK D) as (hd4 & e4 & E4 & _). discriminate. }
    destruct (iph_from_ipv6_slice_area bs hd e p OK D) as (A & t' & SPA & OKA & DX).
    destruct (Exts6Mask.exts6_enc_dec_mask _ A e _ _ OKA DX) as (V6 & xb' & cons' & EXW' & _ & SPX & AGM & _ & LXB & _).
    rewrite EXW in EXW'. injection EXW' as <-.
    assert (LC' : len cons' = XM.header_len e) by (rewrite <- (agree_len _ _ _ AGM); exact LXB).
    assert (L40 : len (ip6_to_bytes hd) = 40).
    { rewrite <- T40. rewrite len_take. cbn [iph_header_len] in LC. lia. }
    assert (EC : cons = ip6_to_bytes hd ++ cons').
    { apply (app_len_inj cons (ip6_to_bytes hd ++ cons') (ipp_payload p ++ t) (ipp_payload p ++ t')).
      - rewrite <- SP, SPA, SPX, <- !app_assoc. reflexivity.
      - rewrite len_app, L40, LC', LC. reflexivity. }
    assert (D40 : drop 40 cons = cons') by (rewrite EC; apply drop_app_len; symmetry; exact L40).
    assert (AG2 : agree (Exts6Mask.x6_keep_mask e (i6_next_header hd)) xb (drop 40 cons)) by (rewrite D40; exact AGM).
    split; [exists xb; split; [exact EWB|split; [exact T40|split; [exact EXW|exact AG2]]]|].
    assert (A40 : agree (ones 40) (ip6_to_bytes hd) (ip6_to_bytes hd)).
    { repeat split; rewrite ?len_ones; exact L40. }
    split.
    { cbn [iph_keep_mask iph_header_len]. rewrite len_app, len_ones. destruct AGM as (M1 & _). rewrite <- M1, LXB.
      reflexivity. }
    intros _. cbn [iph_keep_mask]. rewrite EWB. rewrite EC at 1. rewrite <- D40.
    apply Exts6Mask.agree_app; assumption.
Qed.

(* One mask for every accepted input, without the checksum hypothesis: the IPv4 mask with bytes 10-11 (the header checksum, which write
   recomputes) cleared as well *)
Lemma masked_firstn m : forall k a, masked (firstn m k) (firstn m a) = firstn m (masked k a).
Proof.
  induction m as [|m IH]; intros [|x k] [|y a]; cbn [firstn masked]; try reflexivity.
  rewrite IH. reflexivity.
Qed.
Lemma masked_skipn m : forall k a, masked (skipn m k) (skipn m a) = skipn m (masked k a).
Proof.
  induction m as [|m IH]; intros [|x k] [|y a]; cbn [skipn masked]; try reflexivity;
    try (destruct (skipn m a); reflexivity); try (destruct (skipn m k); reflexivity).
  apply IH.
Qed.

Definition clear_10_11 (k : bytes) : bytes := take 10 k ++ [0; 0] ++ drop 12 k.

Lemma agree_clear_10_11 k a c x : agree k a c -> 12 <= len k -> len x = 2 ->
  agree (clear_10_11 k) (take 10 a ++ x ++ drop 12 a) c.
Proof.
  intros (LA & LC & M) L12 LX. unfold agree, clear_10_11.
  rewrite !len_app, !len_take, !len_drop, LX. change (len [0; 0]) with 2.
  split; [lia|]. split; [lia|].
  rewrite <- (take_drop 10 c) at 1. rewrite <- (take_drop 2 (drop 10 c)). rewrite drop_drop. change (10 + 2) with 12.
  destruct x as [|x0 [|x1 [|x2 x]]]; try (rewrite ?len_cons, ?len_nil in LX; lia).
  assert (T2 : exists c0 c1, take 2 (drop 10 c) = [c0; c1]).
  { assert (L : len (take 2 (drop 10 c)) = 2) by (rewrite len_take, len_drop; lia).
    destruct (take 2 (drop 10 c)) as [|c0 [|c1 [|c2 r]]]; try (rewrite ?len_cons, ?len_nil in L; lia). eauto. }
  destruct T2 as (c0 & c1 & ->).
  rewrite !masked_app.
  - unfold take, drop. rewrite !masked_firstn, !masked_skipn, M. cbn [masked]. rewrite !N.land_0_r. reflexivity.
  - reflexivity.
  - apply Nat2N.inj. fold (len (take 10 k)) (len (take 10 c)). rewrite !len_take. lia.
  - reflexivity.
  - apply Nat2N.inj. fold (len (take 10 k)) (len (take 10 a)). rewrite !len_take. lia.
Qed.

(* the mask of IpHeaders for EVERY accepted byte string: ok = "the wire checksum is right" *)
Definition iph_keep_mask_ck (ok : bool) (h : IpHeaders) : bytes :=
  match h with
  | IpV4 hd e => (if ok then ip4_keep_mask (ip4_header_len hd) else clear_10_11 (ip4_keep_mask (ip4_header_len hd)))
                 ++ x4_keep_mask e
  | IpV6 hd e => ones 40 ++ Exts6Mask.x6_keep_mask e (i6_next_header hd)
  end.

Theorem iph_enc_dec_mask_any en bs h p : bytes_ok bs -> iph_from_slice bs = Ok (h, p) ->
  exists w cons t, iph_write en h = (w, XM.Ok tt) /\ bs = cons ++ ipp_payload p ++ t
    /\ agree (iph_keep_mask_ck (iph_checksum_ok en h) h) w cons.
Proof.
  intros OK H. destruct (iph_enc_dec_mask en bs h p OK H) as (w & cons & t & EW & LW & SP & LC & RE & LM & AGK).
  exists w, cons, t. split; [exact EW|]. split; [exact SP|].
  destruct (iph_checksum_ok en h) eqn:CK.
  - specialize (AGK eq_refl). destruct h; exact AGK.
  - destruct h as [hd e|hd e]; [|discriminate CK].
    cbn [iph_reencodes_pos iph_reencodes] in RE.
    destruct RE as (e0 & ck & xb & E0 & AG & ECK & EWB & EXB & AGX).
    cbn [iph_keep_mask_ck]. rewrite EWB. rewrite <- (take_drop (ip4_header_len hd) cons).
    apply Exts6Mask.agree_app; [|exact AGX].
    apply agree_clear_10_11; [exact AG| |reflexivity].
    unfold ip4_keep_mask, ip4_header_len. rewrite !len_app, !len_ones. change (len [127]) with 1. lia.
Qed.
