(* Roundtrip/VlanProofs.v -- C08 for SingleVlanHeader *)
From EP Require Import Base.Bytes Roundtrip.Common Roundtrip.CommonProofs Roundtrip.LinkNetLemmas Roundtrip.Framed Roundtrip.Vlan.
From EP Require Import Roundtrip.Spec.
From Coq Require Import ZArith Lia ZifyN.
Local Open Scope N_scope.

(* ---- byte level facts (complete sweeps) ---- *)
Definition vl_P (pcp : N) : bool :=
  all_bool (fun dei => all_below 16 (fun id0 =>
    let b := vl_byte0 pcp dei id0 in
    (band (shr b 5) 7 =? pcp) && Bool.eqb (nz (band b 16)) dei && (band b 15 =? id0) && (b <? 256)
    && (b =? pcp * 32 + bit dei * 16 + id0))).
Lemma vl_sweepP : all_below 8 vl_P = true.
Proof. vm_compute. reflexivity. Qed.
Lemma vl_P_facts pcp dei id0 : pcp < 8 -> id0 < 16 ->
  let b := vl_byte0 pcp dei id0 in
  band (shr b 5) 7 = pcp /\ nz (band b 16) = dei /\ band b 15 = id0 /\ b < 256
  /\ b = pcp * 32 + bit dei * 16 + id0.
Proof.
  intros H1 H2. pose proof (all_below_spec 8 vl_P vl_sweepP pcp ltac:(lia)) as S. unfold vl_P in S.
  pose proof (all_below_spec 16 _ (all_bool_spec _ S dei) id0 ltac:(lia)) as S'. cbv beta zeta in S'.
  bsplit S'. cbv zeta. repeat split; assumption.
Qed.

Definition vl_Q (b : N) : bool :=
  (vl_byte0 (band (shr b 5) 7) (nz (band b 16)) (band b 15) =? b) && (band (shr b 5) 7 <? 8) && (band b 15 <? 16).
Lemma vl_sweepQ : all_below 256 vl_Q = true.
Proof. vm_compute. reflexivity. Qed.
Lemma vl_Q_facts b : b < 256 ->
  vl_byte0 (band (shr b 5) 7) (nz (band b 16)) (band b 15) = b /\ band (shr b 5) 7 < 8 /\ band b 15 < 16.
Proof. intros H. pose proof (all_byte vl_Q vl_sweepQ b H) as S. unfold vl_Q in S. bsplit S. repeat split; assumption. Qed.

Lemma vl_wf_facts h : wf_vl h = true -> vl_pcp h < 8 /\ vl_vlan_id h < 4096 /\ vl_ether_type h < 65536.
Proof. unfold wf_vl. intros W. bsplit W. repeat split; assumption. Qed.

Lemma vl_id_digits v : v < 4096 -> (v / 256) mod 256 < 16 /\ be16 ((v / 256) mod 256) (v mod 256) = v.
Proof.
  intros H. split.
  - rewrite N.mod_small; apply N.div_lt_upper_bound; lia.
  - apply u16_be_roundtrip. lia.
Qed.

Definition vl_enc (h : SingleVlanHeader) : bytes :=
  [vl_byte0 (vl_pcp h) (vl_drop_eligible_indicator h) ((vl_vlan_id h / 256) mod 256); vl_vlan_id h mod 256;
   (vl_ether_type h / 256) mod 256; vl_ether_type h mod 256].
Lemma vl_to_bytes_explicit h : vl_to_bytes h = vl_enc h.
Proof. reflexivity. Qed.

Theorem vl_ser_agree h out :
  vl_write out h = out ++ vl_to_bytes h /\ len (vl_to_bytes h) = vl_header_len h.
Proof. split; reflexivity. Qed.

Lemma vl_decode_enc h : wf_vl h = true ->
  vl_decode4 (vl_byte0 (vl_pcp h) (vl_drop_eligible_indicator h) ((vl_vlan_id h / 256) mod 256))
             (vl_vlan_id h mod 256) ((vl_ether_type h / 256) mod 256) (vl_ether_type h mod 256) = h.
Proof.
  intros W. destruct (vl_wf_facts h W) as (R1 & R2 & R3).
  destruct (vl_id_digits _ R2) as (I1 & I2).
  destruct (vl_P_facts (vl_pcp h) (vl_drop_eligible_indicator h) _ R1 I1) as (P1 & P2 & P3 & _). cbv zeta in *.
  unfold vl_decode4. rewrite P1, P2, P3, I2, (u16_be_roundtrip _ R3). destruct h. reflexivity.
Qed.

Lemma vl_to_header_enc h : wf_vl h = true -> vl_to_header (vl_to_bytes h) = Ok h.
Proof. intros W. rewrite vl_to_bytes_explicit. unfold vl_enc, vl_to_header. rewrite (vl_decode_enc h W). reflexivity. Qed.

(* no reserved bits: any 4 bytes decode to a well-formed header that re-encodes to exactly them *)
Lemma vl_to_header_inv hs h : bytes_ok hs -> len hs = 4 -> vl_to_header hs = Ok h ->
  wf_vl h = true /\ vl_to_bytes h = hs.
Proof.
  intros OK L. revert OK h. pattern hs. apply (all_lists_len 4); [|exact L]. cbn [all_lists].
  intros b0 b1 b2 b3 OK h H. unfold vl_to_header in H. apply Ok_inj in H. subst h. bytes_ok_split OK.
  destruct (vl_Q_facts b0 B) as (Q1 & Q2 & Q3).
  pose proof (u16_to_be_be16 (band b0 15) b1 ltac:(lia) B0) as IE.
  pose proof (u16_to_be_be16 b2 b3 B1 B2) as EE. split.
  - unfold wf_vl, vl_decode4. cbn [vl_pcp vl_vlan_id vl_ether_type].
    assert (V : be16 (band b0 15) b1 < 4096) by (unfold be16; lia).
    pose proof (be16_bound b2 b3 B1 B2) as E.
    apply N.ltb_lt in Q2, V, E. rewrite Q2, V, E. reflexivity.
  - unfold vl_to_bytes, vl_decode4. cbn [vl_pcp vl_drop_eligible_indicator vl_vlan_id vl_ether_type].
    rewrite IE, EE, Q1. reflexivity.
Qed.

Theorem vl_dec_enc h rest : wf_vl h = true ->
  vl_from_slice (vl_to_bytes h ++ rest) = Ok (h, rest) /\ vl_read (vl_to_bytes h ++ rest) = Ok (h, rest)
  /\ vl_from_bytes (vl_to_bytes h) = Ok h.
Proof.
  intros W. pose proof (vl_to_header_enc h W) as HD. split; [|split].
  - apply (framed_app 4 vl_to_header); [reflexivity|exact HD].
  - unfold vl_read. rewrite read_exact_app, HD by reflexivity. reflexivity.
  - rewrite vl_to_bytes_explicit. unfold vl_enc, vl_from_bytes. rewrite (vl_decode_enc h W). reflexivity.
Qed.

Theorem vl_enc_dec bs h rest : bytes_ok bs -> vl_from_slice bs = Ok (h, rest) ->
  wf_vl h = true /\ bs = vl_to_bytes h ++ rest /\ len (vl_to_bytes h) = 4
  /\ vl_from_slice (vl_to_bytes h) = Ok (h, []).
Proof.
  intros OK H. apply (framed_inv 4 vl_to_header) in H. destruct H as (L & H & ->).
  destruct (vl_to_header_inv (take 4 bs) h) as [W E]; [apply bytes_ok_take, OK|rewrite len_take; lia|exact H|].
  split; [exact W|]. split; [rewrite E; symmetry; apply take_drop|]. split; [reflexivity|].
  destruct (vl_dec_enc h [] W) as [D _]. rewrite app_nil_r in D. exact D.
Qed.

From EP Require Import Roundtrip.SpecLinkNet.
Theorem vl_spec h : wf_vl h = true ->
  vl_to_bytes h = vlan_layout (vl_pcp h) (vl_drop_eligible_indicator h) (vl_vlan_id h) (vl_ether_type h).
Proof.
  intros W. destruct (vl_wf_facts h W) as (R1 & R2 & R3).
  destruct (vl_id_digits _ R2) as (I1 & I2).
  destruct (vl_P_facts (vl_pcp h) (vl_drop_eligible_indicator h) _ R1 I1) as (_ & _ & _ & P4 & P5). cbv zeta in *.
  rewrite vl_to_bytes_explicit. unfold vl_enc, vlan_layout.
  set (id0 := (vl_vlan_id h / 256) mod 256) in *. set (id1 := vl_vlan_id h mod 256) in *.
  assert (B1 : id1 < 256) by (apply N.mod_lt; lia).
  set (b0 := vl_byte0 (vl_pcp h) (vl_drop_eligible_indicator h) id0) in *.
  assert (E : vl_pcp h * 8192 + bit (vl_drop_eligible_indicator h) * 4096 + vl_vlan_id h = be16 b0 id1).
  { rewrite <- I2 at 1. unfold be16. rewrite P5. clearbody id0 id1. lia. }
  rewrite E. change (field 2 (be16 b0 id1)) with (u16_to_be (be16 b0 id1)).
  rewrite (u16_to_be_be16 b0 id1 P4 B1). reflexivity.
Qed.
