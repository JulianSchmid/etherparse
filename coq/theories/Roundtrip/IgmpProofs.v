(* Roundtrip/IgmpProofs.v -- C08 for IgmpHeader / IgmpType.
   The type dispatch of the decoder is taken from the C17 lemma CtlMsg.Proofs.igmp_cases. *)
From EP Require Import Base.Bytes.
From EP Require Import CtlMsg.Spec CtlMsg.Model CtlMsg.Proofs.
From EP Require Import Roundtrip.Common Roundtrip.CommonProofs Roundtrip.Msg8 Roundtrip.Igmp.
From Coq Require Import ZArith Lia ZifyN.
Local Open Scope N_scope.

Definition igmp_of_bytes (t m g0 g1 g2 g3 : N) : IgmpType :=
  match lookup1 t igmp_table with
  | Some f => f [t; m; 0; 0; g0; g1; g2; g3]
  | None => IgUnknown t m g0 g1 g2 g3
  end.

Lemma spec_igmp_of_bytes t m c0 c1 g0 g1 g2 g3 rest :
  spec_igmp_type t m g0 g1 g2 g3 (t :: m :: c0 :: c1 :: g0 :: g1 :: g2 :: g3 :: rest) = igmp_of_bytes t m g0 g1 g2 g3.
Proof. unfold spec_igmp_type, igmp_of_bytes, igmp_table. cbn [lookup1]. table_cases. reflexivity. Qed.

Lemma igmp_of_bytes_hl t m g0 g1 g2 g3 : Igmp.header_len (igmp_of_bytes t m g0 g1 g2 g3) = 8.
Proof. unfold igmp_of_bytes, igmp_table. cbn [lookup1]. table_cases. reflexivity. Qed.

Lemma igmp_fs_other t m c0 c1 g0 g1 g2 g3 rest : (t =? 17) = false ->
  igmp_from_slice (t :: m :: c0 :: c1 :: g0 :: g1 :: g2 :: g3 :: rest) =
  Ok ({| igmp_type := igmp_of_bytes t m g0 g1 g2 g3; igmp_checksum := be16 c0 c1 |}, rest).
Proof.
  intros T. unfold igmp_from_slice. rewrite igmp_cases. cbv zeta. rewrite len8, T.
  replace (8 + len rest <? 8) with false by (symmetry; apply N.ltb_ge; lia).
  rewrite rest_after_spec by (rewrite len8; lia). rewrite spec_igmp_of_bytes. reflexivity.
Qed.

Lemma igmp_fs_q8 m c0 c1 g0 g1 g2 g3 :
  igmp_from_slice [17; m; c0; c1; g0; g1; g2; g3] =
  Ok ({| igmp_type := IgMembershipQuery m g0 g1 g2 g3; igmp_checksum := be16 c0 c1 |}, []).
Proof. reflexivity. Qed.

Lemma igmp_fs_q12 m c0 c1 g0 g1 g2 g3 r8 q n0 n1 rest :
  igmp_from_slice (17 :: m :: c0 :: c1 :: g0 :: g1 :: g2 :: g3 :: r8 :: q :: n0 :: n1 :: rest) =
  Ok ({| igmp_type := IgMembershipQueryWithSources m g0 g1 g2 g3 r8 q (be16 n0 n1);
         igmp_checksum := be16 c0 c1 |}, rest).
Proof.
  unfold igmp_from_slice. rewrite igmp_cases. cbv zeta.
  set (s := 17 :: m :: c0 :: c1 :: g0 :: g1 :: g2 :: g3 :: r8 :: q :: n0 :: n1 :: rest).
  assert (L : len s = 12 + len rest) by (unfold s; rewrite !len_cons; lia).
  rewrite L. change (17 =? 17) with true.
  replace (12 + len rest <? 8) with false by (symmetry; apply N.ltb_ge; lia).
  replace (8 =? 12 + len rest) with false by (symmetry; apply N.eqb_neq; lia).
  replace (12 <=? 12 + len rest) with true by (symmetry; apply N.leb_le; lia).
  rewrite rest_after_spec by lia. reflexivity.
Qed.

(* trailing bytes after an 8-byte query: 1-3 are rejected *)
Lemma igmp_fs_q_short m c0 c1 g0 g1 g2 g3 rest : 0 < len rest < 4 ->
  igmp_from_slice (17 :: m :: c0 :: c1 :: g0 :: g1 :: g2 :: g3 :: rest) = Err ELen.
Proof.
  intros R. unfold igmp_from_slice. rewrite igmp_cases. cbv zeta. rewrite len8. change (17 =? 17) with true.
  replace (8 + len rest <? 8) with false by (symmetry; apply N.ltb_ge; lia).
  replace (8 =? 8 + len rest) with false by (symmetry; apply N.eqb_neq; lia).
  replace (12 <=? 8 + len rest) with false by (symmetry; apply N.leb_gt; lia).
  reflexivity.
Qed.

Lemma arm8_eq ck b0 b1 b4 b5 b6 b7 :
  igmp_arm8 (u16_to_be ck) b0 b1 b4 b5 b6 b7 = Some [b0; b1; (ck / 256) mod 256; ck mod 256; b4; b5; b6; b7].
Proof. reflexivity. Qed.

Theorem igmp_ser_agree h :
  exists e, igmp_to_bytes h = Some e /\ len e = igmp_header_len h.
Proof.
  destruct h as [ty ck]. unfold igmp_to_bytes, igmp_header_len. cbn [igmp_type igmp_checksum].
  destruct ty; cbn [Igmp.header_len]; unfold u16_to_be at 1; cbv iota beta; rewrite ?arm8_eq;
    unfold u16_to_be; eexists; split; reflexivity.
Qed.

Ltac of_bytes_redg :=
  lazy [igmp_of_bytes igmp_table lookup1 N.eqb Pos.eqb u16_at byte_at nth
        N.to_nat Pos.to_nat Pos.iter_op Nat.add Init.Nat.add N.add Pos.add Pos.succ].

Ltac ok_bytes := repeat (apply bytes_ok_explicit_cons; [first [assumption | apply mod256_lt | lia]|]); constructor.

(* a value of an 8-octet kind other than the query, given by the octets that decode to it *)
Lemma dec_enc_other ty ck t m x4 x5 x6 x7 :
  ck < 65536 -> t < 256 -> m < 256 -> x4 < 256 -> x5 < 256 -> x6 < 256 -> x7 < 256 ->
  (t =? 17) = false -> igmp_of_bytes t m x4 x5 x6 x7 = ty ->
  exists e, igmp_arm8 (u16_to_be ck) t m x4 x5 x6 x7 = Some e /\ len e = Igmp.header_len ty /\ bytes_ok e /\
    (forall rest, igmp_is_query8 ty = false \/ rest = [] ->
       igmp_from_slice (e ++ rest) = Ok ({| igmp_type := ty; igmp_checksum := ck |}, rest)).
Proof.
  intros Hck Ht Hm H4 H5 H6 H7 T17 <-. rewrite arm8_eq, igmp_of_bytes_hl.
  eexists. split; [reflexivity|]. split; [reflexivity|]. split; [ok_bytes|].
  intros rest _. cbn [app]. rewrite igmp_fs_other by exact T17.
  rewrite u16_be_roundtrip by assumption. reflexivity.
Qed.

(* every well-formed value; the 8-byte query only with the empty remainder
   (see igmp_query_trailing) *)
Theorem igmp_dec_enc h : wf_igmp h = true ->
  exists e, igmp_to_bytes h = Some e /\ len e = igmp_header_len h /\ bytes_ok e /\
    (forall rest, igmp_is_query8 (igmp_type h) = false \/ rest = [] -> igmp_from_slice (e ++ rest) = Ok (h, rest)).
Proof.
  destruct h as [ty ck]. unfold wf_igmp. cbn [igmp_type igmp_checksum]. intros W.
  apply andb_true_iff in W. destruct W as [WT WC]. apply N.ltb_lt in WC.
  unfold igmp_to_bytes, igmp_header_len. cbn [igmp_type igmp_checksum].
  destruct ty as [m g0 g1 g2 g3 | m g0 g1 g2 g3 r8 q n | g0 g1 g2 g3 | g0 g1 g2 g3 | f0 f1 n | g0 g1 g2 g3
                 | t r1 b4 b5 b6 b7]; cbn [wf_igmp_type] in WT; bsplit WT.
  - rewrite arm8_eq. eexists. split; [reflexivity|]. split; [reflexivity|]. split; [ok_bytes|].
    intros rest [X | ->]; [discriminate|]. cbn [app]. rewrite igmp_fs_q8, u16_be_roundtrip by assumption. reflexivity.
  - unfold u16_to_be. eexists. split; [reflexivity|]. split; [reflexivity|]. split; [ok_bytes|].
    intros rest _. cbn [app]. rewrite igmp_fs_q12, !u16_be_roundtrip by assumption. reflexivity.
  - apply dec_enc_other; try assumption; try lia; reflexivity.
  - apply dec_enc_other; try assumption; try lia; reflexivity.
  - change (u16_to_be n) with [(n / 256) mod 256; n mod 256]. cbv iota beta.
    apply dec_enc_other; try assumption; try lia; try apply mod256_lt; try reflexivity.
    of_bytes_redg. rewrite u16_be_roundtrip by assumption. reflexivity.
  - apply dec_enc_other; try assumption; try lia; reflexivity.
  - match goal with H : negb (igmp_typed t) = true |- _ => rename H into WN end.
    unfold igmp_typed in WN. apply negb_true_iff in WN. apply orb_false_iff in WN. destruct WN as [T17 LT].
    apply dec_enc_other; try assumption. unfold igmp_of_bytes.
    destruct (lookup1 t igmp_table); [discriminate|reflexivity].
Qed.

(* raw types: nothing is normalised, the mask drops octet 1 only for the four types of the table *)
Lemma raw_mask t : lookup1 t igmp_table = None -> igmp_keep_mask t 8 = ones 8.
Proof.
  unfold igmp_table, igmp_keep_mask. cbn [lookup1]. rewrite !(N.eqb_sym t).
  destruct (18 =? t); [discriminate|]. destruct (22 =? t); [discriminate|].
  destruct (23 =? t); [discriminate|]. destruct (34 =? t); [discriminate|]. reflexivity.
Qed.

Lemma enc_dec_other t m c0 c1 g0 g1 g2 g3 :
  t < 256 -> m < 256 -> c0 < 256 -> c1 < 256 -> g0 < 256 -> g1 < 256 -> g2 < 256 -> g3 < 256 ->
  (t =? 17) = false ->
  let h := {| igmp_type := igmp_of_bytes t m g0 g1 g2 g3; igmp_checksum := be16 c0 c1 |} in
  wf_igmp h = true /\
  igmp_to_bytes h = Some (masked (igmp_keep_mask t 8) [t; m; c0; c1; g0; g1; g2; g3]).
Proof.
  intros Ht Hm H0 H1 H4 H5 H6 H7 T17 h. subst h.
  pose proof (be16_bound c0 c1 H0 H1) as CK. apply N.ltb_lt in CK.
  unfold wf_igmp, igmp_to_bytes. cbn [igmp_type igmp_checksum]. rewrite CK, andb_true_r.
  destruct (lookup1 t igmp_table) as [f|] eqn:LT.
  - unfold igmp_table in LT. cbn [lookup1] in LT. split_table LT.
    all: match goal with E : (_ =? ?t') = true |- _ => apply N.eqb_eq in E; subst t' end.
    all: clear LT Ht T17.
    all: of_bytes_redg; cbn [wf_igmp_type].
    all: match goal with
         | |- context [igmp_keep_mask ?t ?n] =>
           let k := eval vm_compute in (igmp_keep_mask t n) in change (igmp_keep_mask t n) with k
         end; cbn [masked].
    all: rewrite ?(u16_to_be_be16 g2 g3 H6 H7); cbv iota beta.
    all: rewrite arm8_eq.
    all: rewrite ?be16_hi, ?be16_lo, ?land_255, ?N.land_0_r by (first [assumption | lia]).
    all: split; [|reflexivity].
    all: pose proof (be16_bound g2 g3 H6 H7) as X1; apply N.ltb_lt in X1, H4, H5, H6, H7;
         rewrite ?X1, ?H4, ?H5, ?H6, ?H7; reflexivity.
  - unfold igmp_of_bytes. rewrite LT. cbn [wf_igmp_type]. unfold igmp_typed. rewrite LT, T17.
    rewrite arm8_eq, (raw_mask t LT).
    change (ones 8) with [255; 255; 255; 255; 255; 255; 255; 255]. cbn [masked].
    rewrite ?be16_hi, ?be16_lo, ?land_255 by assumption.
    apply N.ltb_lt in Ht, Hm, H4, H5, H6, H7. rewrite Ht, Hm, H4, H5, H6, H7. split; reflexivity.
Qed.

(* every accepted byte string *)
Theorem igmp_enc_dec bs h rest : bytes_ok bs -> igmp_from_slice bs = Ok (h, rest) ->
  wf_igmp h = true /\ bs = take (igmp_header_len h) bs ++ rest /\
  exists e t, igmp_to_bytes h = Some e /\ rd bs 0 = Some t /\
    agree (igmp_keep_mask t (igmp_header_len h)) e (take (igmp_header_len h) bs) /\
    igmp_from_slice e = Ok (h, []).
Proof.
  intros OK H.
  destruct (len bs <? 8) eqn:E8.
  { unfold igmp_from_slice, Igmp.from_slice, Igmp.MIN_LEN in H. rewrite E8 in H. discriminate. }
  destruct (len_ge_cons8 bs E8) as (t & m & c0 & c1 & g0 & g1 & g2 & g3 & r & ->).
  pose proof OK as OK'. bytes_ok_split OK'.
  destruct (t =? 17) eqn:T17.
  - apply N.eqb_eq in T17. subst t.
    destruct r as [|r8 r].
    { (* exactly 8 bytes: IGMPv1/v2 query *)
      rewrite igmp_fs_q8 in H. apply Ok_inj in H. apply pair_equal_spec in H. destruct H as [<- <-].
      unfold igmp_header_len. cbn [igmp_type Igmp.header_len].
      change (take 8 [17; m; c0; c1; g0; g1; g2; g3]) with [17; m; c0; c1; g0; g1; g2; g3].
      assert (WF : wf_igmp {| igmp_type := IgMembershipQuery m g0 g1 g2 g3; igmp_checksum := be16 c0 c1 |} = true).
      { unfold wf_igmp. cbn [igmp_type igmp_checksum wf_igmp_type].
        pose proof (be16_bound c0 c1 B1 B2) as X. apply N.ltb_lt in X, B0, B3, B4, B5, B6.
        rewrite X, B0, B3, B4, B5, B6. reflexivity. }
      split; [exact WF|]. split; [reflexivity|].
      exists [17; m; c0; c1; g0; g1; g2; g3], 17.
      split. { unfold igmp_to_bytes. cbn [igmp_type igmp_checksum]. rewrite arm8_eq, be16_hi, be16_lo by assumption. reflexivity. }
      split; [reflexivity|]. split; [|apply igmp_fs_q8].
      change (igmp_keep_mask 17 8) with (ones (len [17; m; c0; c1; g0; g1; g2; g3])).
      apply agree_ones_refl. exact OK. }
    destruct r as [|q [|n0 [|n1 r]]];
      try (rewrite igmp_fs_q_short in H by (split; reflexivity); discriminate H).
    (* at least 12 bytes: IGMPv3 query *)
    rewrite igmp_fs_q12 in H. apply Ok_inj in H. apply pair_equal_spec in H. destruct H as [<- <-].
    bytes_ok_split OK'.
    unfold igmp_header_len. cbn [igmp_type Igmp.header_len].
    change (take 12 (17 :: m :: c0 :: c1 :: g0 :: g1 :: g2 :: g3 :: r8 :: q :: n0 :: n1 :: r))
      with [17; m; c0; c1; g0; g1; g2; g3; r8; q; n0; n1].
    assert (WF : wf_igmp {| igmp_type := IgMembershipQueryWithSources m g0 g1 g2 g3 r8 q (be16 n0 n1);
                            igmp_checksum := be16 c0 c1 |} = true).
    { unfold wf_igmp. cbn [igmp_type igmp_checksum wf_igmp_type].
      pose proof (be16_bound c0 c1 B1 B2) as X. pose proof (be16_bound n0 n1 B9 B10) as Y.
      apply N.ltb_lt in X, Y, B0, B3, B4, B5, B6, B7, B8.
      rewrite X, Y, B0, B3, B4, B5, B6, B7, B8. reflexivity. }
    split; [exact WF|]. split; [reflexivity|].
    exists [17; m; c0; c1; g0; g1; g2; g3; r8; q; n0; n1], 17.
    split. { unfold igmp_to_bytes. cbn [igmp_type igmp_checksum]. rewrite !u16_to_be_be16 by assumption. reflexivity. }
    split; [reflexivity|]. split; [|apply (igmp_fs_q12 m c0 c1 g0 g1 g2 g3 r8 q n0 n1 [])].
    change (igmp_keep_mask 17 12) with (ones (len [17; m; c0; c1; g0; g1; g2; g3; r8; q; n0; n1])).
    apply agree_ones_refl. repeat (apply bytes_ok_explicit_cons; [first [assumption | lia]|]). constructor.
  - rewrite igmp_fs_other in H by exact T17.
    apply Ok_inj in H. apply pair_equal_spec in H. destruct H as [<- <-].
    unfold igmp_header_len. cbn [igmp_type]. rewrite igmp_of_bytes_hl.
    change (take 8 (t :: m :: c0 :: c1 :: g0 :: g1 :: g2 :: g3 :: r)) with [t; m; c0; c1; g0; g1; g2; g3].
    destruct (enc_dec_other t m c0 c1 g0 g1 g2 g3 B B0 B1 B2 B3 B4 B5 B6 T17) as [WF TB]. cbv zeta in WF, TB.
    split; [exact WF|]. split; [reflexivity|].
    eexists. exists t. split; [exact TB|]. split; [reflexivity|].
    split.
    { apply agree_of_masked; [|reflexivity]. unfold igmp_keep_mask.
      destruct ((t =? 18) || (t =? 22) || (t =? 23) || (t =? 34)); reflexivity. }
    destruct (igmp_dec_enc _ WF) as (e & TB' & _ & _ & F).
    rewrite TB in TB'. apply Some_inj in TB'. rewrite TB'.
    assert (Q : igmp_is_query8 (igmp_of_bytes t m g0 g1 g2 g3) = false).
    { unfold igmp_of_bytes, igmp_table. cbn [lookup1]. table_cases. reflexivity. }
    specialize (F [] (or_introl Q)). rewrite app_nil_r in F. exact F.
Qed.

(* the 8-byte query followed by >= 4 more bytes decodes to a DIFFERENT value (IGMPv3
   query with sources): the reason for `rest = []` in igmp_dec_enc *)
Example igmp_query_trailing :
  let h := {| igmp_type := IgMembershipQuery 100 224 0 0 1; igmp_checksum := 7 |} in
  exists e, igmp_to_bytes h = Some e /\
    igmp_from_slice (e ++ [1; 2; 0; 3]) =
      Ok ({| igmp_type := IgMembershipQueryWithSources 100 224 0 0 1 1 2 3; igmp_checksum := 7 |}, [])
    /\ igmp_from_slice (e ++ [1]) = Err ELen.
Proof. eexists. split; [reflexivity|]. split; reflexivity. Qed.

(* the encoder against the RFC 2236 / 3376 table of CtlMsg/Spec.v *)
Lemma igmp_from_slice_spec bs h rest : igmp_from_slice bs = Ok (h, rest) ->
  igmp bs = CtlMsg.Spec.Ok (igmp_type h, igmp_checksum h, igmp_header_len h, rest).
Proof.
  intros H. rewrite <- igmp_eq. unfold igmp_from_slice in H. unfold Igmp.view.
  destruct (Igmp.from_slice bs) as [[[ty ck] r]| |]; try discriminate.
  apply Ok_inj in H. apply pair_equal_spec in H. destruct H as [<- <-]. reflexivity.
Qed.

Theorem igmp_spec h : wf_igmp h = true ->
  exists e, igmp_to_bytes h = Some e /\
    igmp e = CtlMsg.Spec.Ok (igmp_type h, igmp_checksum h, igmp_header_len h, []).
Proof.
  intros W. destruct (igmp_dec_enc h W) as (e & TB & L & _ & F).
  exists e. split; [exact TB|].
  specialize (F [] (or_intror eq_refl)). rewrite app_nil_r in F.
  apply igmp_from_slice_spec. exact F.
Qed.
