(* Roundtrip/AuthProofs.v -- C08 for IpAuthHeader *)
From EP Require Import Base.Bytes Roundtrip.Common Roundtrip.CommonProofs Roundtrip.Auth.
From Coq Require Import ZArith Lia ZifyN.
Local Open Scope N_scope.

Lemma wf_ah_iff h : wf_ah h = true <->
  ah_next_header h < 256 /\ ah_spi h < 4294967296 /\ ah_sequence_number h < 4294967296
  /\ ah_raw_icv_len h <= 254 /\ len (ah_raw_icv_buffer h) = 1016 /\ bytes_ok (ah_raw_icv_buffer h).
Proof. unfold wf_ah. rewrite !andb_true_iff, !N.ltb_lt, N.leb_le, N.eqb_eq, bytes_okb_spec. tauto. Qed.

Definition ah_icv (h : IpAuthHeader) : bytes := take (ah_raw_icv_len h * 4) (ah_raw_icv_buffer h).
Definition ah_fix (h : IpAuthHeader) : bytes :=
  [ah_next_header h; ah_raw_icv_len h + 1; 0; 0] ++ u32_to_be (ah_spi h) ++ u32_to_be (ah_sequence_number h).

Lemma len_ah_fix h : len (ah_fix h) = 12.
Proof. reflexivity. Qed.

Lemma ah_fixed_wf h : wf_ah h = true -> ah_fixed h = Some (ah_fix h).
Proof.
  intros W. destruct (proj1 (wf_ah_iff h) W) as (_ & _ & _ & L & _).
  unfold ah_fixed. replace (256 <=? ah_raw_icv_len h + 1) with false by (symmetry; apply N.leb_gt; lia). reflexivity.
Qed.

Lemma len_ah_icv h : wf_ah h = true -> len (ah_icv h) = ah_raw_icv_len h * 4.
Proof.
  intros W. destruct (proj1 (wf_ah_iff h) W) as (_ & _ & _ & L & BL & _).
  apply len_take_le. lia.
Qed.

Lemma ah_raw_icv_wf h : wf_ah h = true -> ah_raw_icv h = Some (ah_icv h).
Proof.
  intros W. destruct (proj1 (wf_ah_iff h) W) as (_ & _ & _ & L & BL & _).
  apply slice_range_0. lia.
Qed.

Lemma ah_to_bytes_wf h : wf_ah h = true -> ah_to_bytes h = Some (ah_fix h ++ ah_icv h).
Proof.
  intros W. destruct (proj1 (wf_ah_iff h) W) as (_ & _ & _ & L & BL & _).
  unfold ah_to_bytes. rewrite (ah_fixed_wf h W). unfold ah_header_len, AH_MAX_LEN.
  rewrite len_app, len_ah_fix, BL.
  replace (12 + 1016 <=? 1028) with true by reflexivity.
  replace (12 + ah_raw_icv_len h * 4 <=? 12 + 1016) with true by (symmetry; apply N.leb_le; lia).
  cbn [andb]. f_equal. apply take_app_more. rewrite len_ah_fix. reflexivity.
Qed.

Theorem ah_ser_agree h out : wf_ah h = true ->
  exists e, ah_to_bytes h = Some e /\ ah_write out h = Some (out ++ e) /\ len e = ah_header_len h.
Proof.
  intros W. exists (ah_fix h ++ ah_icv h). split; [apply ah_to_bytes_wf; assumption|]. split.
  - unfold ah_write. rewrite (ah_fixed_wf h W), (ah_raw_icv_wf h W). reflexivity.
  - rewrite len_app, len_ah_fix, (len_ah_icv h W). reflexivity.
Qed.

(* new on an aligned ICV *)
Lemma ah_new_aligned nh spi sq icv k : len icv = k * 4 -> k <= 254 ->
  ah_new nh spi sq icv = Some {| ah_next_header := nh; ah_spi := spi; ah_sequence_number := sq;
                                 ah_raw_icv_len := k; ah_raw_icv_buffer := icv ++ zeros (1016 - k * 4) |}.
Proof.
  intros L K. unfold ah_new, AH_MAX_ICV_LEN. rewrite L.
  replace (1016 <? k * 4) with false by (symmetry; apply N.ltb_ge; lia).
  rewrite N.mod_mul by lia. change (0 =? 0) with true. cbn [negb].
  rewrite N.div_mul, as_u8_small by lia. reflexivity.
Qed.

Lemma ah_slice_from_slice_app F O rest pl :
  len F = 12 -> rd F 1 = Some pl -> 1 <= pl -> (pl + 2) * 4 = 12 + len O ->
  ah_slice_from_slice (F ++ O ++ rest) = Ok (F ++ O).
Proof.
  intros LF R P H. unfold ah_slice_from_slice. rewrite !len_app, LF.
  replace (12 + (len O + len rest) <? 12) with false by (symmetry; apply N.ltb_ge; lia).
  assert (R' : rd (F ++ O ++ rest) 1 = Some pl).
  { unfold rd in *. rewrite nth_error_app1; [assumption|]. apply nth_error_Some. congruence. }
  rewrite R'. replace (pl <? 1) with false by (symmetry; apply N.ltb_ge; lia).
  rewrite H. replace (12 + (len O + len rest) <? 12 + len O) with false by (symmetry; apply N.ltb_ge; lia).
  f_equal. rewrite app_assoc. apply take_app_len. rewrite len_app, LF. reflexivity.
Qed.

Lemma ah_norm_icv h : ah_raw_icv_buffer (ah_norm h) = ah_icv h ++ zeros (1016 - ah_raw_icv_len h * 4).
Proof. reflexivity. Qed.

Theorem ah_dec_enc h rest : wf_ah h = true ->
  exists e, ah_to_bytes h = Some e /\ ah_from_slice (e ++ rest) = Ok (ah_norm h, rest)
            /\ ah_read (e ++ rest) = Ok (ah_norm h, rest) /\ ah_eqb (ah_norm h) h = true.
Proof.
  intros W. destruct (proj1 (wf_ah_iff h) W) as (R1 & R2 & R3 & L & BL & BO).
  set (O := ah_icv h). assert (LO : len O = ah_raw_icv_len h * 4) by (apply len_ah_icv; assumption).
  exists (ah_fix h ++ O). split; [apply ah_to_bytes_wf; assumption|].
  assert (HDR : ah_to_header (ah_fix h ++ O) = Ok (ah_norm h)).
  { unfold ah_fix, u32_to_be. cbn [app]. unfold ah_to_header, slice_from.
    rewrite !len_cons.
    replace (12 <=? 1 + (1 + (1 + (1 + (1 + (1 + (1 + (1 + (1 + (1 + (1 + (1 + len O)))))))))))) with true
      by (symmetry; apply N.leb_le; lia).
    change (drop 12 ?x) with O.
    rewrite (ah_new_aligned _ _ _ O (ah_raw_icv_len h) LO L).
    rewrite !u32_be_roundtrip by assumption. reflexivity. }
  split; [|split].
  - unfold ah_from_slice. rewrite <- app_assoc.
    rewrite (ah_slice_from_slice_app (ah_fix h) O rest (ah_raw_icv_len h + 1));
      [|apply len_ah_fix|reflexivity|lia|rewrite LO; lia].
    rewrite app_assoc, slice_from_app, HDR by reflexivity. reflexivity.
  - unfold ah_read. rewrite <- app_assoc, read_exact_app by reflexivity.
    unfold ah_fix, u32_to_be. cbn [app]. cbv iota beta.
    rewrite (proj2 (N.ltb_ge _ _)) by lia.
    replace (ah_raw_icv_len h + 1 - 1) with (ah_raw_icv_len h) by lia.
    unfold AH_MAX_ICV_LEN. rewrite (proj2 (N.ltb_ge 1016 _)) by lia.
    rewrite read_exact_app by (symmetry; exact LO).
    rewrite !u32_be_roundtrip by assumption. reflexivity.
  - unfold ah_eqb, ah_norm. cbn [ah_next_header ah_spi ah_sequence_number].
    rewrite !N.eqb_refl. cbn [andb].
    rewrite (ah_raw_icv_wf h W). unfold ah_raw_icv. cbn [ah_raw_icv_len ah_raw_icv_buffer].
    fold (ah_icv h). fold O. rewrite slice_range_0 by (rewrite len_app, LO; lia).
    rewrite take_app_len by (symmetry; exact LO). apply bytes_eqb_refl.
Qed.

Theorem ah_enc_dec bs h rest : bytes_ok bs -> ah_from_slice bs = Ok (h, rest) ->
  wf_ah h = true /\ ah_norm h = h /\
  exists e, ah_to_bytes h = Some e /\ bs = take (ah_header_len h) bs ++ rest
            /\ agree (ah_keep_mask (ah_header_len h)) e (take (ah_header_len h) bs)
            /\ ah_from_slice e = Ok (h, []).
Proof.
  intros OK H. unfold ah_from_slice, ah_slice_from_slice in H.
  destruct (len bs <? 12) eqn:L; [discriminate|].
  destruct bs as [|b0 [|b1 [|b2 [|b3 [|b4 [|b5 [|b6 [|b7 [|b8 [|b9 [|b10 [|b11 r]]]]]]]]]]]];
    try (vm_compute in L; discriminate).
  clear L.
  match type of H with context [rd ?s 1] => change (rd s 1) with (Some b1) in H end.
  cbv iota beta zeta in H.
  destruct (b1 <? 1) eqn:L1; [discriminate|]. apply N.ltb_ge in L1.
  set (hl := (b1 + 2) * 4) in *.
  set (bs := b0 :: b1 :: b2 :: b3 :: b4 :: b5 :: b6 :: b7 :: b8 :: b9 :: b10 :: b11 :: r) in *.
  destruct (len bs <? hl) eqn:L2; [discriminate|]. apply N.ltb_ge in L2.
  pose proof OK as OK'. unfold bs in OK'. bytes_ok_split OK'.
  set (F := [b0; b1; b2; b3; b4; b5; b6; b7; b8; b9; b10; b11]).
  assert (EB : bs = F ++ r) by reflexivity.
  set (k := b1 - 1).
  assert (HK : hl = 12 + k * 4) by (unfold hl, k; lia).
  assert (K254 : k <= 254) by (unfold k; lia).
  set (O := take (k * 4) r).
  assert (LR : k * 4 <= len r).
  { rewrite EB, len_app in L2. change (len F) with 12 in L2. lia. }
  assert (LO : len O = k * 4) by (unfold O; rewrite len_take; lia).
  assert (TK : take hl bs = F ++ O).
  { rewrite EB. apply take_app_more. change (len F) with 12. exact HK. }
  assert (BOo : bytes_ok O) by (unfold O; apply bytes_ok_take; exact OK').
  rewrite TK in H. unfold slice_from in H.
  replace (len (F ++ O)) with hl in H by (rewrite len_app, LO; change (len F) with 12; lia).
  replace (hl <=? len bs) with true in H by (symmetry; apply N.leb_le; exact L2).
  unfold F in H. cbn [app] in H. unfold ah_to_header, slice_from in H.
  rewrite !len_cons in H.
  replace (12 <=? 1 + (1 + (1 + (1 + (1 + (1 + (1 + (1 + (1 + (1 + (1 + (1 + len O)))))))))))) with true in H
    by (symmetry; apply N.leb_le; lia).
  match type of H with context [drop 12 ?x] => change (drop 12 x) with O in H end.
  rewrite (ah_new_aligned _ _ _ O k LO K254) in H.
  injection H as Hh Hrest.
  assert (Hl : ah_header_len h = hl).
  { rewrite <- Hh. unfold ah_header_len. cbn [ah_raw_icv_len]. lia. }
  assert (WF : wf_ah h = true).
  { rewrite <- Hh. apply wf_ah_iff. cbn [ah_next_header ah_spi ah_sequence_number ah_raw_icv_len ah_raw_icv_buffer].
    pose proof (be32_bound b4 b5 b6 b7 B3 B4 B5 B6). pose proof (be32_bound b8 b9 b10 b11 B7 B8 B9 B10).
    rewrite len_app, LO, len_zeros. repeat split; try assumption; [lia|].
    apply bytes_ok_app. split; [exact BOo|apply bytes_ok_zeros]. }
  assert (NM : ah_norm h = h).
  { rewrite <- Hh. unfold ah_norm. cbn [ah_next_header ah_spi ah_sequence_number ah_raw_icv_len ah_raw_icv_buffer].
    rewrite (take_app_len O) by (symmetry; exact LO). reflexivity. }
  split; [exact WF|]. split; [exact NM|].
  destruct (ah_dec_enc h [] WF) as (e & E1 & E2 & _ & _).
  exists e. split; [exact E1|]. rewrite Hl.
  split; [rewrite <- Hrest; symmetry; apply take_drop|].
  rewrite app_nil_r, NM in E2. split; [|exact E2].
  rewrite (ah_to_bytes_wf h WF) in E1. apply Some_inj in E1. rewrite <- E1, TK.
  apply agree_of_masked.
  - unfold ah_keep_mask. rewrite !len_app, !len_ones, LO. change (len F) with 12. change (len [255; 255; 0; 0]) with 4. lia.
  - assert (IC : ah_icv h = O).
    { rewrite <- Hh. unfold ah_icv. cbn [ah_raw_icv_len ah_raw_icv_buffer]. apply take_app_len. symmetry. exact LO. }
    rewrite IC. rewrite <- Hh. unfold ah_fix. cbn [ah_next_header ah_spi ah_sequence_number ah_raw_icv_len].
    rewrite (u32_to_be_be32 b4 b5 b6 b7 B3 B4 B5 B6), (u32_to_be_be32 b8 b9 b10 b11 B7 B8 B9 B10).
    replace (k + 1) with b1 by (unfold k; lia).
    unfold ah_keep_mask.
    change F with ([b0; b1; b2; b3] ++ [b4; b5; b6; b7; b8; b9; b10; b11]).
    cbn [app masked].
    rewrite !land_255 by assumption. rewrite !N.land_0_r.
    replace (hl - 4) with (len ([b4; b5; b6; b7; b8; b9; b10; b11] ++ O))
      by (rewrite len_app, LO; change (len [b4; b5; b6; b7; b8; b9; b10; b11]) with 8; lia).
    rewrite masked_ones by (repeat (apply bytes_ok_explicit_cons; [assumption|]); exact BOo).
    reflexivity.
Qed.

(* ---- the serialiser writes the RFC 4302 layout ---- *)
From EP Require Import Roundtrip.Spec Roundtrip.SpecLinkNet.

Theorem ah_spec h : wf_ah h = true ->
  ah_to_bytes h = Some (ah_layout (ah_next_header h) (ah_spi h) (ah_sequence_number h) (ah_icv h)).
Proof.
  intros W. rewrite (ah_to_bytes_wf h W). f_equal.
  unfold ah_layout, ah_fix. rewrite (len_ah_icv h W).
  replace ((12 + ah_raw_icv_len h * 4) / 4 - 2) with (ah_raw_icv_len h + 1); [reflexivity|].
  replace (12 + ah_raw_icv_len h * 4) with ((ah_raw_icv_len h + 3) * 4) by lia.
  rewrite N.div_mul by lia. lia.
Qed.

(* an ICV that new / set_raw_icv accept: a multiple of 4 whose quarter fits the u8 length field *)
Lemma ah_icv_len_ok (icv : bytes) : len icv <= 1016 -> len icv mod 4 = 0 ->
  len icv = len icv / 4 * 4 /\ len icv / 4 <= 254 /\ as_u8 (len icv / 4) = len icv / 4.
Proof.
  intros L M. pose proof (N.div_mod (len icv) 4 ltac:(lia)) as X. rewrite M in X.
  assert (K : len icv / 4 <= 254) by lia. rewrite as_u8_small by lia. repeat split; lia.
Qed.

(* new() yields a well-formed value whose ICV is the argument *)
Lemma ah_new_wf nh spi sq icv h : nh < 256 -> spi < 4294967296 -> sq < 4294967296 -> bytes_ok icv ->
  ah_new nh spi sq icv = Some h -> wf_ah h = true /\ ah_icv h = icv /\ ah_norm h = h.
Proof.
  intros A B C OK H. unfold ah_new, AH_MAX_ICV_LEN in H.
  destruct (1016 <? len icv) eqn:L; [discriminate|]. apply N.ltb_ge in L.
  destruct (len icv mod 4 =? 0) eqn:M; [|discriminate]. cbn [negb] in H. apply N.eqb_eq in M.
  apply Some_inj in H. destruct (ah_icv_len_ok icv L M) as (D & K & U).
  rewrite U in H. subst h. split; [|split].
  - apply wf_ah_iff. cbn [ah_next_header ah_spi ah_sequence_number ah_raw_icv_len ah_raw_icv_buffer].
    rewrite len_app, len_zeros. repeat split; try assumption; [lia|].
    apply bytes_ok_app. split; [assumption|apply bytes_ok_zeros].
  - unfold ah_icv. cbn [ah_raw_icv_len ah_raw_icv_buffer]. apply take_app_len. symmetry. exact D.
  - unfold ah_norm. cbn [ah_next_header ah_spi ah_sequence_number ah_raw_icv_len ah_raw_icv_buffer].
    rewrite <- D. rewrite (take_app_len icv) by reflexivity. reflexivity.
Qed.

(* set_raw_icv keeps the value well-formed and may leave stale bytes behind the ICV *)
Lemma ah_set_raw_icv_wf h icv h' : wf_ah h = true -> bytes_ok icv ->
  ah_set_raw_icv h icv = Some h' -> wf_ah h' = true /\ ah_icv h' = icv.
Proof.
  intros W OK H. destruct (proj1 (wf_ah_iff h) W) as (R1 & R2 & R3 & _ & BL & BO).
  unfold ah_set_raw_icv, AH_MAX_ICV_LEN in H.
  destruct (1016 <? len icv) eqn:L; [discriminate|]. apply N.ltb_ge in L.
  destruct (len icv mod 4 =? 0) eqn:M; [|discriminate]. cbn [negb] in H. apply N.eqb_eq in M.
  destruct (len (ah_raw_icv_buffer h) <? len icv); [discriminate|].
  apply Some_inj in H. destruct (ah_icv_len_ok icv L M) as (D & K & U).
  rewrite U in H. subst h'. split.
  - apply wf_ah_iff. cbn [ah_next_header ah_spi ah_sequence_number ah_raw_icv_len ah_raw_icv_buffer].
    rewrite len_app, len_drop, BL. repeat split; try assumption; [lia|].
    apply bytes_ok_app. split; [assumption|apply bytes_ok_drop; assumption].
  - unfold ah_icv. cbn [ah_raw_icv_len ah_raw_icv_buffer]. apply take_app_len. symmetry. exact D.
Qed.
