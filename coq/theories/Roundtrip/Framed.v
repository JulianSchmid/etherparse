(* Lists of a known length written out element by element, and the decoder of a header of
   fixed length n at the front of a slice. *)
From EP Require Import Base.Bytes Roundtrip.Common Roundtrip.CommonProofs.
From Coq Require Import ZArith Lia List.
Import ListNotations.
Local Open Scope N_scope.

(* P for every list of exactly n elements, as a statement about n element variables:
   `apply (all_lists_len n); cbn [all_lists]; intros` leaves one goal about an explicit list. *)
Fixpoint all_lists {A} (n : nat) (P : list A -> Prop) : Prop :=
  match n with O => P [] | S k => forall x, all_lists k (fun l => P (x :: l)) end.

Lemma all_lists_len {A} n (P : list A -> Prop) : all_lists n P -> forall l, len l = N.of_nat n -> P l.
Proof.
  revert P. induction n as [|k IH]; intros P H l L; destruct l as [|x l]; unfold len in L; cbn [length] in L; try lia.
  - exact H.
  - apply (IH (fun l => P (x :: l)) (H x)). unfold len. lia.
Qed.

(* XHeaderSlice::from_slice(slice)?.to_header() paired with &slice[n..]: the from_slice models of
   the fixed-length headers are `framed n X_to_header` by reflexivity. *)
Section Framed.
  Context {T : Type} (n : N) (hdr : bytes -> res T).

  Definition framed (s : bytes) : res (T * bytes) :=
    match (if len s <? n then Err ELen else Ok (take n s)) with
    | Err e => Err e
    | Ok hs =>
      match hdr hs with
      | Err e => Err e
      | Ok h => match slice_from s n with None => Err EPanic | Some rest => Ok (h, rest) end
      end
    end.

  Lemma framed_short s : len s < n -> framed s = Err ELen.
  Proof. intros L. unfold framed. apply N.ltb_lt in L. rewrite L. reflexivity. Qed.

  Lemma framed_eq s : n <= len s ->
    framed s = match hdr (take n s) with Err e => Err e | Ok h => Ok (h, drop n s) end.
  Proof.
    intros L. unfold framed, slice_from.
    replace (len s <? n) with false by (symmetry; apply N.ltb_ge; exact L).
    replace (n <=? len s) with true by (symmetry; apply N.leb_le; exact L). reflexivity.
  Qed.

  Lemma framed_app e rest h : len e = n -> hdr e = Ok h -> framed (e ++ rest) = Ok (h, rest).
  Proof.
    intros L H. rewrite framed_eq by (rewrite len_app; lia).
    rewrite take_app_len, drop_app_len, H by (symmetry; exact L). reflexivity.
  Qed.

  Lemma framed_inv s h rest : framed s = Ok (h, rest) -> n <= len s /\ hdr (take n s) = Ok h /\ rest = drop n s.
  Proof.
    intros H. destruct (N.lt_ge_cases (len s) n) as [L|L]; [rewrite framed_short in H by exact L; discriminate|].
    rewrite framed_eq in H by exact L. destruct (hdr (take n s)); [|discriminate].
    injection H as -> ->. auto.
  Qed.
End Framed.
