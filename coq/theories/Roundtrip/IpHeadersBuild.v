(* Roundtrip/IpHeadersBuild.v -- the crate's own setters establish iph_wf:
   for every IpHeaders value whose parts are in range, set_next_headers(n) followed by a successful
   set_payload_len(k) yields a well-formed value (Roundtrip/IpHeaders.v: iph_wf) that announces exactly
   header_len + k bytes and walks to n -- so the hypotheses of C08_IpHeaders_dec_enc are what a user
   of the public API gets.  Linking of the IPv6 chain: property C12 (ExtChain.Proofs.link_walks). *)
From EP Require Import Base.Bytes Roundtrip.Common Roundtrip.CommonProofs Roundtrip.LinkNetLemmas.
From EP Require Import Roundtrip.Ipv4 Roundtrip.Ipv4Proofs Roundtrip.Ipv6 Roundtrip.Ipv6Proofs.
From EP Require Import Roundtrip.Auth Roundtrip.AuthProofs Roundtrip.Exts4 Roundtrip.Exts4Proofs.
From EP Require Import Roundtrip.IpHeaders Roundtrip.IpHeadersProofs.
From EP Require ExtChain.Spec ExtChain.Model ExtChain.Proofs.
From Coq Require Import ZArith Lia ZifyN.
Local Open Scope N_scope.

Module XM := EP.ExtChain.Model.
Module XP := EP.ExtChain.Proofs.
Module XS := EP.ExtChain.Spec.

Lemma wf_ip4_set h p t : wf_ip4 h = true -> p < 256 -> t < 65536 ->
  wf_ip4 (ip4_set_total_len (ip4_set_protocol h p) t) = true.
Proof.
  unfold wf_ip4, ip4_set_total_len, ip4_set_protocol. cbn. intros W Hp Ht. apply N.ltb_lt in Hp, Ht.
  rewrite Hp, Ht. rewrite !andb_true_iff in W. rewrite !andb_true_iff. intuition.
Qed.
Lemma wf_ip6_set h n l : wf_ip6 h = true -> n < 256 -> l < 65536 ->
  wf_ip6 (ip6_set_payload_len (ip6_set_next_header h n) l) = true.
Proof.
  unfold wf_ip6, ip6_set_payload_len, ip6_set_next_header. cbn. intros W Hn Hl. apply N.ltb_lt in Hn, Hl.
  rewrite Hn, Hl. rewrite !andb_true_iff in W. rewrite !andb_true_iff. intuition.
Qed.
Lemma wf_ah_set h n : wf_ah h = true -> n < 256 -> wf_ah (ah_set_next_header h n) = true.
Proof.
  unfold wf_ah, ah_set_next_header. cbn. intros W Hn. apply N.ltb_lt in Hn. rewrite Hn.
  rewrite !andb_true_iff in W. rewrite !andb_true_iff. intuition.
Qed.

(* Ipv4Extensions::set_next_headers: the counterpart of ExtChain.Proofs.set_next_headers_facts for the IPv4 chain *)
Lemma x4_set_next_headers_facts e n : wf_x4 e = true -> n < 256 ->
  match x4_auth e with Some _ => true | None => negb (n =? 51) end = true ->
  let (e', p) := x4_set_next_headers e n in
  wf_x4 e' = true /\ p < 256 /\ x4_linked p e' = true /\ x4_next_header e' p = XM.Ok n
  /\ x4_header_len e' = x4_header_len e.
Proof.
  unfold x4_set_next_headers, wf_x4, x4_linked, x4_next_header, x4_header_len.
  destruct (x4_auth e) as [a|]; cbn [x4_auth]; intros V Hn LO.
  - rewrite (wf_ah_set a n V Hn). repeat split.
  - unfold X4_AUTH. rewrite (N.eqb_sym 51 n). repeat split; auto.
Qed.

(* the condition on the last number: not an extension header of the version (an IPv4 chain without
   authentication header must not end on 51; with one, any number) *)
Definition iph_last_ok (h : IpHeaders) (n : N) : bool :=
  (n <? 256) &&
  match h with
  | IpV4 _ e => match x4_auth e with Some _ => true | None => negb (n =? 51) end
  | IpV6 _ _ => negb (XS.is_ext_number n)
  end.

Theorem iph_built_wf h n k h' : iph_parts_wf h = true -> iph_last_ok h n = true ->
  iph_set_payload_len (fst (iph_set_next_headers h n)) k = Some h' ->
  iph_wf h' = true /\ iph_final h' = n /\ iph_header_len h' = iph_header_len h
  /\ iph_announced h' = (match h' with
                         | IpV6 _ _ => if iph_header_len h' - 40 + k =? 0 then None else Some (iph_header_len h' + k)
                         | IpV4 _ _ => Some (iph_header_len h' + k)
                         end).
Proof.
  intros PW LO SP. unfold iph_last_ok in LO. apply andb_true_iff in LO. destruct LO as [Hn LO]. ltb_t Hn.
  destruct h as [hd e|hd e]; unfold iph_parts_wf in PW; apply andb_true_iff in PW; destruct PW as [W V].
  - (* IPv4 *)
    unfold iph_set_next_headers in SP.
    pose proof (x4_set_next_headers_facts e n V Hn LO) as F.
    destruct (x4_set_next_headers e n) as [e' p]. destruct F as (V' & Hp & LK & NH & HL'). cbn [fst] in SP.
    destruct (wf_ip4_facts hd W) as (_ & _ & _ & WO). destruct (wf_i4o_facts _ WO) as (OL & _).
    unfold iph_set_payload_len in SP. destruct (USIZE_MAX <? _); [discriminate|].
    unfold ip4_set_payload_len in SP.
    destruct (ip4_max_payload_len _ <? _) eqn:MX; [discriminate|]. ltb_t MX.
    apply Some_inj in SP. subst h'.
    unfold ip4_max_payload_len in MX. cbn [ip4_set_protocol i4_options] in MX.
    set (t := as_u16 _).
    assert (T : t = ip4_header_len hd + (k + x4_header_len e')).
    { subst t. unfold as_u16. apply N.mod_small. unfold ip4_header_len in *. cbn [ip4_set_protocol i4_options]. lia. }
    assert (TL : t < 65536) by (rewrite T; unfold ip4_header_len; lia).
    change (ip4_header_len (ip4_set_protocol hd p)) with (ip4_header_len hd) in *.
    split.
    { unfold iph_wf. rewrite (wf_ip4_set hd p t W Hp TL), V'.
      cbn [i4_protocol ip4_set_total_len ip4_set_protocol]. rewrite LK. cbn [andb].
      apply N.leb_le. change (ip4_header_len (ip4_set_total_len (ip4_set_protocol hd p) t)) with (ip4_header_len hd).
      cbn [i4_total_len ip4_set_total_len]. rewrite T. lia. }
    split; [unfold iph_final, iph_next_header; cbn [i4_protocol ip4_set_total_len ip4_set_protocol];
            rewrite NH; reflexivity|].
    split; [unfold iph_header_len; rewrite HL'; reflexivity|].
    unfold iph_announced, iph_header_len. cbn [i4_total_len ip4_set_total_len].
    change (ip4_header_len (ip4_set_total_len (ip4_set_protocol hd p) t)) with (ip4_header_len hd).
    f_equal. lia.
  - (* IPv6 *)
    destruct (XS.is_ext_number n) eqn:NE; [discriminate|].
    unfold iph_set_next_headers in SP.
    destruct (XP.set_next_headers_facts e n V Hn) as (V' & N' & HL').
    pose proof (XP.link_walks e n NE) as LW.
    destruct (XM.set_next_headers e n) as [e' nh'] eqn:SN. cbn [fst snd] in *.
    unfold iph_set_payload_len in SP. destruct (USIZE_MAX <? _); [discriminate|].
    unfold ip6_set_payload_length in SP.
    destruct (65535 <? k + XM.header_len e') eqn:MX; [discriminate|]. ltb_t MX.
    apply Some_inj in SP. subst h'.
    assert (T : as_u16 (k + XM.header_len e') = k + XM.header_len e') by (unfold as_u16; apply N.mod_small; lia).
    rewrite T.
    split.
    { unfold iph_wf. rewrite (wf_ip6_set hd nh' (k + XM.header_len e') W N' ltac:(lia)). rewrite V'.
      cbn [i6_next_header i6_payload_length ip6_set_payload_len ip6_set_next_header]. rewrite LW, NE.
      cbn [andb negb]. apply N.leb_le. lia. }
    split; [unfold iph_final, iph_next_header; cbn [i6_next_header ip6_set_payload_len ip6_set_next_header];
            rewrite LW; reflexivity|].
    split; [unfold iph_header_len; rewrite HL'; reflexivity|].
    unfold iph_announced, iph_header_len. cbn [i6_payload_length ip6_set_payload_len].
    replace (40 + XM.header_len e' - 40 + k) with (k + XM.header_len e') by lia.
    destruct (k + XM.header_len e' =? 0); [reflexivity|]. f_equal. lia.
Qed.
