(* Roundtrip/Exts6Mask.v -- the positional keep-mask of Ipv6Extensions and its serialiser agreement.

   `x6_chain e first` is the list of header parts in the order in which Ipv6Extensions::write emits them (the
   order of the next_header links, a function of e and of the first ip number); `x6_keep_mask e first` is the
   concatenation of the parts' own masks -- all ones for a raw header, Roundtrip.Frag.frag_keep_mask (byte 1,
   bits 1-2 of byte 3) for the fragment header, Roundtrip.Auth.ah_keep_mask (bytes 2-3) for the authentication
   header -- so every masked position is at a fixed offset inside a header whose start is the sum of the
   lengths of the parts in front of it.

   Ipv6Extensions has ONE serialiser (write -> write_internal; no to_bytes, no write_to_slice): its agreement
   statement is  write = concatenation of the parts' to_bytes() in chain order, header_len bytes, every
   present header exactly once (x6_present).  x6_chain mirrors ExtChain.Model.write_loop and is tied to it by
   write_loop_chain; decoder and writer are tied by chain_mirror. *)
From EP Require Import Base.Bytes ExtChain.Spec ExtChain.Model ExtChain.View ExtChain.Proofs Roundtrip.Exts6Readers.
From EP Require Roundtrip.Common Roundtrip.CommonProofs Roundtrip.Frag Roundtrip.Auth.
From Coq Require Import ZArith Lia ZifyN Permutation.
Local Open Scope N_scope.

Local Notation agree := Roundtrip.Common.agree.
Local Notation masked := Roundtrip.Common.masked.
Local Notation ones := Roundtrip.Common.ones.

(* ------------------------------------------------------------------ the parts of an extension chain *)
Inductive part := PRaw (h : RawExt) | PFrag (h : Frag) | PAuth (h : AuthH).

(* the header's own to_bytes() (None = its unwrap / u8 arithmetic panics: excluded by *_valid) *)
Definition part_to_bytes (p : part) : option bytes :=
  match p with
  | PRaw h => raw_to_bytes h
  | PFrag h => Some (frag_to_bytes h)
  | PAuth h => auth_to_bytes h
  end.
(* ... and its value for a valid header *)
Definition part_bytes (p : part) : bytes :=
  match p with
  | PRaw h => r_next_header h :: r_header_length h :: r_payload h
  | PFrag h => frag_to_bytes h
  | PAuth h => auth_bytes h
  end.
Definition part_len (p : part) : N :=
  match p with
  | PRaw h => raw_header_len h
  | PFrag h => frag_header_len h
  | PAuth h => auth_header_len h
  end.
Definition part_valid (p : part) : bool :=
  match p with
  | PRaw h => raw_valid h
  | PFrag h => frag_valid h
  | PAuth h => auth_valid h
  end.
(* the bits of the header that survive decode -> encode: the masks of the single headers (C08_Frag_enc_dec,
   C08_Auth_enc_dec; a raw extension header has no reserved bit) *)
Definition part_mask (p : part) : bytes :=
  match p with
  | PRaw h => ones (raw_header_len h)
  | PFrag _ => Roundtrip.Frag.frag_keep_mask
  | PAuth h => Roundtrip.Auth.ah_keep_mask (auth_header_len h)
  end.

Definition parts_bytes (ps : list part) : bytes := flat_map part_bytes ps.
Definition parts_mask (ps : list part) : bytes := flat_map part_mask ps.

(* the order in which write_internal emits the headers: the loop of write_internal with the writes
   replaced by the header written *)
Fixpoint chain_loop (fuel : nat) (e : Exts6) (nw : Flags) (next : N) (rw : bool) : list part :=
  match fuel with
  | O => []
  | S f =>
    match arm_of next with
    | AHop => []
    | ADest =>
      if rw then
        if fl_final_destination_options nw then
          match routing e with
          | None => []
          | Some r =>
            match rt_final_destination_options r with
            | None => []
            | Some h => PRaw h :: chain_loop f e (clr_final nw) (r_next_header h) rw
            end
          end
        else []
      else if fl_destination_options nw then
        match destination_options e with
        | None => []
        | Some h => PRaw h :: chain_loop f e (clr_dst nw) (r_next_header h) rw
        end
      else []
    | ARoute =>
      if fl_routing nw then
        match routing e with
        | None => []
        | Some r => PRaw (rt_routing r) :: chain_loop f e (clr_routing nw) (r_next_header (rt_routing r)) true
        end
      else []
    | AFrag =>
      if fl_fragment nw then
        match fragment e with
        | None => []
        | Some h => PFrag h :: chain_loop f e (clr_frag nw) (f_next_header h) rw
        end
      else []
    | AAuth =>
      if fl_auth nw then
        match auth e with
        | None => []
        | Some h => PAuth h :: chain_loop f e (clr_auth nw) (a_next_header h) rw
        end
      else []
    | AOther => []
    end
  end.

Definition x6_chain (e : Exts6) (first : N) : list part :=
  if IPV6_HOP_BY_HOP =? first then
    match hop_by_hop_options e with
    | Some h => PRaw h :: chain_loop LOOP_FUEL e (clr_hop (flags_init e)) (r_next_header h) false
    | None => chain_loop LOOP_FUEL e (flags_init e) first false
    end
  else chain_loop LOOP_FUEL e (flags_init e) first false.

(* THE positional mask of Ipv6Extensions *)
Definition x6_keep_mask (e : Exts6) (first : N) : bytes := parts_mask (x6_chain e first).

(* the headers the struct holds, in the order of its fields *)
Definition opt_list {A} (o : option A) : list A := match o with Some a => [a] | None => [] end.
Definition pending_parts (e : Exts6) (f : Flags) : list part :=
  (if fl_hop_by_hop_options f then map PRaw (opt_list (hop_by_hop_options e)) else [])
  ++ (if fl_destination_options f then map PRaw (opt_list (destination_options e)) else [])
  ++ (if fl_routing f then map (fun r => PRaw (rt_routing r)) (opt_list (routing e)) else [])
  ++ (if fl_final_destination_options f
      then match routing e with Some r => map PRaw (opt_list (rt_final_destination_options r)) | None => [] end
      else [])
  ++ (if fl_fragment f then map PFrag (opt_list (fragment e)) else [])
  ++ (if fl_auth f then map PAuth (opt_list (auth e)) else []).
Definition x6_present (e : Exts6) : list part := pending_parts e (mkFlags true true true true true true).

(* ------------------------------------------------------------------ parts *)
Lemma part_to_bytes_valid p : part_valid p = true ->
  part_to_bytes p = Some (part_bytes p) /\ len (part_bytes p) = part_len p /\ len (part_mask p) = part_len p.
Proof.
  destruct p as [h|h|h]; cbn [part_valid part_to_bytes part_bytes part_len part_mask]; intros V.
  - pose proof (raw_to_bytes_valid h V) as T. split; [exact T|].
    split; [exact (raw_to_bytes_len h _ V T)|apply Roundtrip.CommonProofs.len_ones].
  - split; [reflexivity|]. split; [apply frag_to_bytes_len|reflexivity].
  - split; [apply auth_to_bytes_valid; exact V|]. split; [apply auth_bytes_len; exact V|].
    unfold Roundtrip.Auth.ah_keep_mask. rewrite len_app, Roundtrip.CommonProofs.len_ones.
    unfold auth_header_len. change (len [255; 255; 0; 0]) with 4. lia.
Qed.

Lemma parts_bytes_cons p ps : parts_bytes (p :: ps) = part_bytes p ++ parts_bytes ps.
Proof. reflexivity. Qed.
Lemma parts_mask_cons p ps : parts_mask (p :: ps) = part_mask p ++ parts_mask ps.
Proof. reflexivity. Qed.

(* ------------------------------------------------------------------ the writer emits the chain *)
Lemma write_loop_chain fuel : forall e nw next rw w, exts6_valid e = true ->
  fst (write_loop fuel e nw next rw w) = w ++ parts_bytes (chain_loop fuel e nw next rw)
  /\ Forall (fun p => part_valid p = true) (chain_loop fuel e nw next rw).
Proof.
  induction fuel as [|fuel IH]; intros e nw next rw w V; [cbn; rewrite app_nil_r; auto|].
  pose proof (exts6_valid_inv e V) as (Vh & Vd & Vr & Vf & Va).
  assert (NIL : forall x : res walk_error unit, fst (w, x) = w ++ parts_bytes [] /\ Forall (fun p => part_valid p = true) [])
    by (intros x; cbn; rewrite app_nil_r; auto).
  cbn [write_loop chain_loop]. destruct (arm_of next).
  - destruct (fl_hop_by_hop_options nw); apply NIL.
  - destruct rw.
    + destruct (fl_final_destination_options nw); [|apply NIL].
      destruct (routing e) as [r|] eqn:Er; [|apply NIL].
      destruct (rt_final_destination_options r) as [h|] eqn:Eh; [|apply NIL].
      cbn [opt_valid] in Vr. apply routing_valid_inv in Vr. destruct Vr as [_ Vfin].
      rewrite Eh in Vfin. cbn [opt_valid] in Vfin. rewrite (raw_to_bytes_valid h Vfin).
      destruct (IH e (clr_final nw) (r_next_header h) true (w ++ r_next_header h :: r_header_length h :: r_payload h) V)
        as [B F]. rewrite B, parts_bytes_cons, <- app_assoc. split; [reflexivity|constructor; assumption].
    + destruct (fl_destination_options nw); [|apply NIL].
      destruct (destination_options e) as [h|] eqn:Eh; [|apply NIL].
      cbn [opt_valid] in Vd. rewrite (raw_to_bytes_valid h Vd).
      destruct (IH e (clr_dst nw) (r_next_header h) false (w ++ r_next_header h :: r_header_length h :: r_payload h) V)
        as [B F]. rewrite B, parts_bytes_cons, <- app_assoc. split; [reflexivity|constructor; assumption].
  - destruct (fl_routing nw); [|apply NIL].
    destruct (routing e) as [r|] eqn:Er; [|apply NIL].
    cbn [opt_valid] in Vr. apply routing_valid_inv in Vr. destruct Vr as [Vrt _].
    cbv zeta. rewrite (raw_to_bytes_valid _ Vrt).
    destruct (IH e (clr_routing nw) (r_next_header (rt_routing r)) true
                (w ++ r_next_header (rt_routing r) :: r_header_length (rt_routing r) :: r_payload (rt_routing r)) V)
      as [B F]. rewrite B, parts_bytes_cons, <- app_assoc. split; [reflexivity|constructor; assumption].
  - destruct (fl_fragment nw); [|apply NIL].
    destruct (fragment e) as [h|] eqn:Eh; [|apply NIL]. cbn [opt_valid] in Vf.
    destruct (IH e (clr_frag nw) (f_next_header h) rw (w ++ frag_to_bytes h) V) as [B F].
    rewrite B, parts_bytes_cons, <- app_assoc. split; [reflexivity|constructor; assumption].
  - destruct (fl_auth nw); [|apply NIL].
    destruct (auth e) as [h|] eqn:Eh; [|apply NIL]. cbn [opt_valid] in Va.
    rewrite (auth_to_bytes_valid h Va).
    destruct (IH e (clr_auth nw) (a_next_header h) rw (w ++ auth_bytes h) V) as [B F].
    rewrite B, parts_bytes_cons, <- app_assoc. split; [reflexivity|constructor; assumption].
  - apply NIL.
Qed.

(* write emits the chain -- also when it ends in an error: the bytes in the Vec are the headers reached *)
Theorem write_is_chain e first : exts6_valid e = true ->
  fst (write e first) = parts_bytes (x6_chain e first)
  /\ Forall (fun p => part_valid p = true) (x6_chain e first).
Proof.
  intros V. unfold write, x6_chain. destruct (IPV6_HOP_BY_HOP =? first).
  - destruct (hop_by_hop_options e) as [h|] eqn:Eh.
    + pose proof (exts6_valid_inv e V) as (Vh & _). rewrite Eh in Vh. cbn [opt_valid] in Vh.
      rewrite (raw_to_bytes_valid h Vh).
      destruct (write_loop_chain LOOP_FUEL e (clr_hop (flags_init e)) (r_next_header h) false
                  (r_next_header h :: r_header_length h :: r_payload h) V) as [B F].
      rewrite B. split; [reflexivity|constructor; assumption].
    + destruct (write_loop_chain LOOP_FUEL e (flags_init e) first false [] V) as [B F]. rewrite B. auto.
  - destruct (write_loop_chain LOOP_FUEL e (flags_init e) first false [] V) as [B F]. rewrite B. auto.
Qed.

(* a successful write has emitted every pending header exactly once *)
Lemma perm_front (p : part) a b c : Permutation c (a ++ b) -> Permutation (p :: c) (a ++ p :: b).
Proof. intros H. apply Permutation_cons_app. exact H. Qed.

Lemma perm_push (p : part) a x y : Permutation (p :: x) y -> Permutation (p :: a ++ x) (a ++ y).
Proof. intros H. etransitivity; [apply Permutation_middle|]. apply Permutation_app_head. exact H. Qed.

Ltac perm_tac W :=
  rewrite <- ?app_assoc in W |- *; cbn [app] in W |- *;
  (etransitivity; [apply perm_skip; exact W|]);
  repeat (first [reflexivity | apply perm_push]).
Ltac flag_cbn W :=
  unfold pending_parts in W |- *;
  cbn [clr_hop clr_dst clr_routing clr_frag clr_auth clr_final fl_hop_by_hop_options fl_destination_options
       fl_routing fl_fragment fl_auth fl_final_destination_options] in W.

Lemma write_loop_perm fuel : forall e nw next rw w, flags_ok e nw ->
  snd (write_loop fuel e nw next rw w) = Ok tt ->
  Permutation (chain_loop fuel e nw next rw) (pending_parts e nw).
Proof.
  induction fuel as [|fuel IH]; intros e nw next rw w FO W; [discriminate|].
  assert (Done : forall w' : bytes, snd (w', @check_all_done unit nw tt) = Ok tt -> Permutation [] (pending_parts e nw)).
  { intros w' H. cbn [snd] in H. apply check_all_done_ok in H. destruct H as [_ ->]. constructor. }
  cbn [write_loop chain_loop] in *. destruct (arm_of next).
  - destruct (fl_hop_by_hop_options nw); [discriminate|]. eapply Done; exact W.
  - destruct rw.
    + destruct (fl_final_destination_options nw) eqn:Ef; [|eapply Done; exact W].
      destruct (routing e) as [r|] eqn:Er; [|discriminate].
      destruct (rt_final_destination_options r) as [h|] eqn:Eh; [|discriminate].
      destruct (raw_to_bytes h); [|discriminate].
      apply IH in W; [|apply flags_ok_clr_final; exact FO].
      flag_cbn W. rewrite ?Ef, ?Er in W. rewrite ?Ef, ?Er. rewrite Eh. cbn [opt_list map] in W |- *. perm_tac W.
    + destruct (fl_destination_options nw) eqn:Ef; [|eapply Done; exact W].
      destruct (destination_options e) as [h|] eqn:Eh; [|discriminate].
      destruct (raw_to_bytes h); [|discriminate].
      apply IH in W; [|apply flags_ok_clr_dst; exact FO].
      flag_cbn W. rewrite ?Ef, ?Eh in W. rewrite ?Ef, ?Eh. cbn [opt_list map] in W |- *. perm_tac W.
  - destruct (fl_routing nw) eqn:Ef; [|eapply Done; exact W].
    destruct (routing e) as [r|] eqn:Er; [|discriminate]. cbv zeta in W.
    destruct (raw_to_bytes (rt_routing r)); [|discriminate].
    apply IH in W; [|apply flags_ok_clr_routing; exact FO].
    flag_cbn W. rewrite ?Ef, ?Er in W. rewrite ?Ef, ?Er. cbn [opt_list map] in W |- *. perm_tac W.
  - destruct (fl_fragment nw) eqn:Ef; [|eapply Done; exact W].
    destruct (fragment e) as [h|] eqn:Eh; [|discriminate].
    apply IH in W; [|apply flags_ok_clr_frag; exact FO].
    flag_cbn W. rewrite ?Ef, ?Eh in W. rewrite ?Ef, ?Eh. cbn [opt_list map] in W |- *. perm_tac W.
  - destruct (fl_auth nw) eqn:Ef; [|eapply Done; exact W].
    destruct (auth e) as [h|] eqn:Eh; [|discriminate].
    destruct (auth_to_bytes h); [|discriminate].
    apply IH in W; [|apply flags_ok_clr_auth; exact FO].
    flag_cbn W. rewrite ?Ef, ?Eh in W. rewrite ?Ef, ?Eh. cbn [opt_list map] in W |- *. perm_tac W.
  - eapply Done; exact W.
Qed.

Lemma pending_init_present e : Permutation (pending_parts e (flags_init e)) (x6_present e).
Proof.
  unfold x6_present, pending_parts, flags_init. cbn.
  destruct (hop_by_hop_options e), (destination_options e), (routing e) as [[rt [fd|]]|],
    (fragment e), (auth e); cbn; reflexivity.
Qed.


(* ---- A: the serialiser agreement of Ipv6Extensions --------------------------------------------- *)
(* (the struct has a single serialiser, write; IpHeaders::write and the packet builder call the same
   write_internal).  For every valid struct and every first ip number:
   - the bytes in the Vec -- also after an error -- are the to_bytes() of the headers of the chain, in chain
     order, each of its own header_len;
   - when write succeeds these are header_len(e) bytes and the chain is a permutation of the headers the
     struct holds: every present header is written exactly once. *)
Theorem exts6_ser_agree e first : exts6_valid e = true ->
  fst (write e first) = parts_bytes (x6_chain e first)
  /\ Forall (fun p => part_to_bytes p = Some (part_bytes p) /\ len (part_bytes p) = part_len p)
            (x6_chain e first)
  /\ (snd (write e first) = Ok tt ->
      len (fst (write e first)) = header_len e /\ Permutation (x6_chain e first) (x6_present e)
      /\ len (x6_keep_mask e first) = header_len e).
Proof.
  intros V. destruct (write_is_chain e first V) as [B F]. split; [exact B|]. split.
  { eapply Forall_impl; [|exact F]. cbv beta. intros p VP. destruct (part_to_bytes_valid p VP) as (T & L & _). auto. }
  intros S. destruct (write e first) as [bs r] eqn:EW. cbn [fst snd] in *. subst r.
  pose proof (write_len e first bs V EW) as LB.
  assert (P : Permutation (x6_chain e first) (x6_present e)).
  { etransitivity; [|apply pending_init_present].
    unfold write, x6_chain in *. destruct (IPV6_HOP_BY_HOP =? first).
    - destruct (hop_by_hop_options e) as [h|] eqn:Eh.
      + destruct (raw_to_bytes h) as [tb|]; [|discriminate].
        pose proof (write_loop_perm LOOP_FUEL e (clr_hop (flags_init e)) (r_next_header h) false tb
                      (flags_ok_clr_hop _ _ (flags_ok_init e))) as Q. rewrite EW in Q. specialize (Q eq_refl).
        unfold pending_parts in *. cbn [clr_hop flags_init fl_hop_by_hop_options fl_destination_options fl_routing
          fl_fragment fl_auth fl_final_destination_options] in *. rewrite Eh. cbn [is_some opt_list map app] in *.
        apply perm_skip. exact Q.
      + pose proof (write_loop_perm LOOP_FUEL e (flags_init e) first false [] (flags_ok_init e)) as Q.
        rewrite EW in Q. exact (Q eq_refl).
    - pose proof (write_loop_perm LOOP_FUEL e (flags_init e) first false [] (flags_ok_init e)) as Q.
      rewrite EW in Q. exact (Q eq_refl). }
  split; [exact LB|]. split; [exact P|].
  (* the mask is as long as the bytes *)
  rewrite <- LB, B. unfold x6_keep_mask. clear - F. induction F as [|p ps VP _ IH]; [reflexivity|].
  rewrite parts_mask_cons, parts_bytes_cons, !len_app, IH.
  destruct (part_to_bytes_valid p VP) as (_ & L1 & L2). lia.
Qed.

(* ------------------------------------------------------------------ decode side: consumed bytes per part *)
(* what the three header readers say about the bytes they consumed (read_raw_inv, read_frag_inv,
   read_auth_inv), as a relation between the decoded header and its chunk of the input *)
Definition part_rel (p : part) (c : bytes) : Prop :=
  match p with
  | PRaw h => c = r_next_header h :: r_header_length h :: r_payload h
  | PFrag h => exists b0 b1 b2 b3 b4 b5 b6 b7,
      c = [b0; b1; b2; b3; b4; b5; b6; b7] /\ frag_to_bytes h = [b0; 0; b2; N.land b3 249; b4; b5; b6; b7]
  | PAuth h => exists b0 b1 b2 b3 body,
      c = [b0; b1; b2; b3] ++ body /\ auth_bytes h = [b0; b1; 0; 0] ++ body
  end.
Fixpoint parts_rel (ps : list part) (c : bytes) : Prop :=
  match ps with
  | [] => c = []
  | p :: r => exists c1 c2, c = c1 ++ c2 /\ part_rel p c1 /\ parts_rel r c2
  end.

Lemma chain_nil_no_flags fuel e next rw :
  chain_loop fuel e (mkFlags false false false false false false) next rw = [].
Proof. destruct fuel as [|f]; [reflexivity|]. cbn [chain_loop]. destruct (arm_of next), rw; reflexivity. Qed.

(* Lock step of decoder and writer.  When the decoder, started on the part of e that is already written
   (done e nw), ends with e itself, then the bytes it consumed are the chain still to be written, part by
   part; the writer emits exactly that chain; next_header follows it to the same ip number; and the decoder
   run on the written bytes retraces it. *)
Definition mirrored (fuel : nat) (e : Exts6) (nw : Flags) (next : N) (rw : bool) (w rest : bytes) (n : N)
    (r : bytes) : Prop :=
  exists cons, rest = cons ++ r /\ parts_rel (chain_loop fuel e nw next rw) cons
    /\ write_loop fuel e nw next rw w = (w ++ parts_bytes (chain_loop fuel e nw next rw), Ok tt)
    /\ next_header_loop fuel e nw next rw = Ok n
    /\ forall slice t, from_slice_loop fuel slice (done e nw) (parts_bytes (chain_loop fuel e nw next rw) ++ t) next
                       = Ok (e, n, t).

(* the decoder has returned its own state: nothing is left to write *)
Lemma mirrored_stop fuel e nw next rw w rest : flags_ok e nw -> done e nw = e -> stops e next = true ->
  mirrored (S fuel) e nw next rw w rest next rest.
Proof.
  intros FO D ST. pose proof (done_fixed _ _ FO D) as ->. unfold mirrored. rewrite chain_nil_no_flags.
  exists []. cbn [parts_bytes flat_map app]. rewrite app_nil_r.
  split; [reflexivity|]. split; [reflexivity|]. split; [|split].
  - cbn [write_loop]. unfold stops in ST.
    destruct (arm_of next); try discriminate; try reflexivity. destruct rw; reflexivity.
  - cbn [next_header_loop]. unfold stops in ST.
    destruct (arm_of next); try discriminate; try reflexivity. destruct rw; reflexivity.
  - intros slice t. rewrite D. apply stops_loop. exact ST.
Qed.

(* one header p, consumed as the chunk c: all four loops take one step *)
Lemma mirrored_step fuel e nw nw' next next' rw rw' w p c rest' n r :
  part_rel p c ->
  chain_loop (S fuel) e nw next rw = p :: chain_loop fuel e nw' next' rw' ->
  write_loop (S fuel) e nw next rw w = write_loop fuel e nw' next' rw' (w ++ part_bytes p) ->
  next_header_loop (S fuel) e nw next rw = next_header_loop fuel e nw' next' rw' ->
  (forall slice t, from_slice_loop (S fuel) slice (done e nw) (part_bytes p ++ t) next
                   = from_slice_loop fuel slice (done e nw') t next') ->
  mirrored fuel e nw' next' rw' (w ++ part_bytes p) rest' n r ->
  mirrored (S fuel) e nw next rw w (c ++ rest') n r.
Proof.
  intros PR CH WR NH RD (cons & -> & PS & W & N' & RE). unfold mirrored. rewrite CH, parts_bytes_cons.
  exists (c ++ cons). split; [apply app_assoc|]. split; [exists c, cons; auto|].
  split; [rewrite WR, W, app_assoc; reflexivity|]. split; [rewrite NH; exact N'|].
  intros slice t. rewrite <- app_assoc, RD. apply RE.
Qed.

Lemma chain_mirror fuel : forall e nw next rw w slice rest n r,
  exts6_valid e = true -> Inv e nw rw -> flags_ok e nw -> bytes_ok rest ->
  from_slice_loop fuel slice (done e nw) rest next = Ok (e, n, r) ->
  mirrored fuel e nw next rw w rest n r.
Proof.
  induction fuel as [|fuel IH]; intros e nw next rw w slice rest n r V I FO OK H; [discriminate|].
  cbn [from_slice_loop] in H. destruct (arm_of next) eqn:A.
  - discriminate.
  - (* destination options: before the routing header the plain slot, after it the final one *)
    destruct rw.
    + pose proof (Inv_true _ _ I) as FR. pose proof I as [I1 _]. rewrite FR in I1.
      destruct (routing e) as [re|] eqn:ER; [|discriminate]. clear I1.
      rewrite routing_done, FR, ER in H. cbn [rt_final_destination_options rt_routing] in H.
      destruct (fl_final_destination_options nw) eqn:FF.
      * cbn [is_some] in H.
        destruct (read_raw true slice rest) as [[[h nh] rest']|x| |] eqn:R; cbn [bind] in H; try discriminate.
        destruct (read_raw_inv _ _ _ _ _ _ OK R) as (VH & -> & ->).
        pose proof (from_slice_loop_mono _ _ _ _ _ _ _ _ H) as (_ & _ & M & _).
        destruct (M _ eq_refl) as (re' & E' & _ & MF). rewrite ER in E'. injection E' as <-.
        specialize (MF h eq_refl). pose proof (done_set_final e nw re h FR ER MF) as DE.
        rewrite DE in H. apply bytes_ok_app_r in OK.
        apply (mirrored_step fuel e nw (clr_final nw) next (r_next_header h) true true w (PRaw h)).
        -- reflexivity.
        -- cbn [chain_loop]. rewrite A, FF, ER, MF. reflexivity.
        -- cbn [write_loop]. rewrite A, FF, ER, MF, (raw_to_bytes_valid h VH). reflexivity.
        -- cbn [next_header_loop]. rewrite A, FF, ER, MF. reflexivity.
        -- intros slice' t. cbn [from_slice_loop part_bytes]. rewrite A, routing_done, FR, ER.
           cbn [rt_final_destination_options rt_routing]. rewrite FF. cbn [is_some].
           rewrite (read_raw_written h true slice' t VH). cbn [bind]. rewrite DE. reflexivity.
        -- exact (IH _ _ _ _ _ _ _ _ _ V (Inv_clr_final _ _ I) (flags_ok_clr_final _ _ FO) OK H).
      * destruct (rt_final_destination_options re) as [hf|] eqn:EF; cbn [is_some] in H.
        -- injection H as D <- <-. apply mirrored_stop; auto. unfold stops. rewrite A, ER, EF. reflexivity.
        -- exfalso.
           destruct (read_raw true slice rest) as [[[h nh] rest']|x| |] eqn:R; cbn [bind] in H; try discriminate.
           pose proof (from_slice_loop_mono _ _ _ _ _ _ _ _ H) as (_ & _ & M & _).
           destruct (M _ eq_refl) as (re' & E' & _ & MF). rewrite ER in E'. injection E' as <-.
           specialize (MF h eq_refl). congruence.
    + pose proof (Inv_false_routing _ _ I) as RN. rewrite RN, destination_options_done in H.
      destruct (fl_destination_options nw) eqn:FD.
      * cbn [is_some] in H.
        destruct (read_raw true slice rest) as [[[h nh] rest']|x| |] eqn:R; cbn [bind] in H; try discriminate.
        destruct (read_raw_inv _ _ _ _ _ _ OK R) as (VH & -> & ->).
        pose proof (from_slice_loop_mono _ _ _ _ _ _ _ _ H) as (_ & M & _). specialize (M h eq_refl).
        pose proof (done_set_dst e nw h M) as DE. rewrite DE in H. apply bytes_ok_app_r in OK.
        apply (mirrored_step fuel e nw (clr_dst nw) next (r_next_header h) false false w (PRaw h)).
        -- reflexivity.
        -- cbn [chain_loop]. rewrite A, FD, M. reflexivity.
        -- cbn [write_loop]. rewrite A, FD, M, (raw_to_bytes_valid h VH). reflexivity.
        -- cbn [next_header_loop]. rewrite A, FD, M. reflexivity.
        -- intros slice' t. cbn [from_slice_loop part_bytes]. rewrite A, RN, destination_options_done, FD.
           cbn [is_some]. rewrite (read_raw_written h true slice' t VH). cbn [bind]. rewrite DE. reflexivity.
        -- exact (IH _ _ _ _ _ _ _ _ _ V (Inv_clr_dst _ _ _ I) (flags_ok_clr_dst _ _ FO) OK H).
      * destruct (destination_options e) as [h|] eqn:ED; cbn [is_some] in H.
        -- injection H as D <- <-. apply mirrored_stop; auto.
           unfold stops. rewrite A. rewrite D in RN. rewrite RN, ED. reflexivity.
        -- exfalso.
           destruct (read_raw true slice rest) as [[[h nh] rest']|x| |] eqn:R; cbn [bind] in H; try discriminate.
           pose proof (from_slice_loop_mono _ _ _ _ _ _ _ _ H) as (_ & M & _).
           specialize (M h eq_refl). congruence.
  - (* routing *)
    rewrite routing_done in H. destruct (fl_routing nw) eqn:FR.
    + cbn [is_some] in H.
      destruct (read_raw true slice rest) as [[[h nh] rest']|x| |] eqn:R; cbn [bind] in H; try discriminate.
      destruct (read_raw_inv _ _ _ _ _ _ OK R) as (VH & -> & ->).
      pose proof (from_slice_loop_mono _ _ _ _ _ _ _ _ H) as (_ & _ & M & _).
      destruct (M _ eq_refl) as (re & ER & ERT & _). cbn [rt_routing] in ERT. subst h.
      pose proof I as [_ I2]. pose proof (done_set_routing e nw re ER (I2 FR)) as DE.
      rewrite DE in H. apply bytes_ok_app_r in OK.
      apply (mirrored_step fuel e nw (clr_routing nw) next (r_next_header (rt_routing re)) rw true w
               (PRaw (rt_routing re))).
      * reflexivity.
      * cbn [chain_loop]. rewrite A, FR, ER. reflexivity.
      * cbn [write_loop]. rewrite A, FR, ER. cbv zeta. rewrite (raw_to_bytes_valid _ VH). reflexivity.
      * cbn [next_header_loop]. rewrite A, FR, ER. reflexivity.
      * intros slice' t. cbn [from_slice_loop part_bytes]. rewrite A, routing_done, FR. cbn [is_some].
        rewrite (read_raw_written _ true slice' t VH). cbn [bind]. rewrite DE. reflexivity.
      * exact (IH _ _ _ _ _ _ _ _ _ V (Inv_clr_routing _ _ rw _ ER I) (flags_ok_clr_routing _ _ FO) OK H).
    + destruct (routing e) as [re|] eqn:ER; cbn [is_some] in H.
      * injection H as D <- <-. apply mirrored_stop; auto. unfold stops. rewrite A, ER. reflexivity.
      * exfalso.
        destruct (read_raw true slice rest) as [[[h nh] rest']|x| |] eqn:R; cbn [bind] in H; try discriminate.
        pose proof (from_slice_loop_mono _ _ _ _ _ _ _ _ H) as (_ & _ & M & _).
        destruct (M _ eq_refl) as (re & ER' & _). congruence.
  - (* fragment *)
    rewrite fragment_done in H. destruct (fl_fragment nw) eqn:FF.
    + cbn [is_some] in H.
      destruct (read_frag slice rest) as [[[h nh] rest']|x| |] eqn:R; cbn [bind] in H; try discriminate.
      destruct (read_frag_inv _ _ _ _ _ OK R) as (VH & -> & b0 & b1 & b2 & b3 & b4 & b5 & b6 & b7 & -> & TB).
      pose proof (from_slice_loop_mono _ _ _ _ _ _ _ _ H) as (_ & _ & _ & M & _). specialize (M h eq_refl).
      pose proof (done_set_frag e nw h M) as DE. rewrite DE in H. apply bytes_ok_app_r in OK.
      apply (mirrored_step fuel e nw (clr_frag nw) next (f_next_header h) rw rw w (PFrag h)).
      * exists b0, b1, b2, b3, b4, b5, b6, b7. split; [reflexivity|exact TB].
      * cbn [chain_loop]. rewrite A, FF, M. reflexivity.
      * cbn [write_loop]. rewrite A, FF, M. reflexivity.
      * cbn [next_header_loop]. rewrite A, FF, M. reflexivity.
      * intros slice' t. cbn [from_slice_loop part_bytes]. rewrite A, fragment_done, FF. cbn [is_some].
        rewrite (read_frag_written h slice' t VH). cbn [bind]. rewrite DE. reflexivity.
      * exact (IH _ _ _ _ _ _ _ _ _ V (Inv_clr_frag _ _ _ I) (flags_ok_clr_frag _ _ FO) OK H).
    + destruct (fragment e) as [h|] eqn:EF; cbn [is_some] in H.
      * injection H as D <- <-. apply mirrored_stop; auto. unfold stops. rewrite A, EF. reflexivity.
      * exfalso.
        destruct (read_frag slice rest) as [[[h nh] rest']|x| |] eqn:R; cbn [bind] in H; try discriminate.
        pose proof (from_slice_loop_mono _ _ _ _ _ _ _ _ H) as (_ & _ & _ & M & _).
        specialize (M h eq_refl). congruence.
  - (* authentication *)
    rewrite auth_done in H. destruct (fl_auth nw) eqn:FF.
    + cbn [is_some] in H.
      destruct (read_auth slice rest) as [[[h nh] rest']|x| |] eqn:R; cbn [bind] in H; try discriminate.
      destruct (read_auth_inv _ _ _ _ _ OK R) as (VH & -> & b0 & b1 & b2 & b3 & body & -> & TB).
      pose proof (from_slice_loop_mono _ _ _ _ _ _ _ _ H) as (_ & _ & _ & _ & M). specialize (M h eq_refl).
      pose proof (done_set_auth e nw h M) as DE. rewrite DE in H.
      apply bytes_ok_app_r in OK. apply bytes_ok_app_r in OK. rewrite app_assoc.
      apply (mirrored_step fuel e nw (clr_auth nw) next (a_next_header h) rw rw w (PAuth h)).
      * exists b0, b1, b2, b3, body. split; [reflexivity|exact TB].
      * cbn [chain_loop]. rewrite A, FF, M. reflexivity.
      * cbn [write_loop]. rewrite A, FF, M, (auth_to_bytes_valid h VH). reflexivity.
      * cbn [next_header_loop]. rewrite A, FF, M. reflexivity.
      * intros slice' t. cbn [from_slice_loop part_bytes]. rewrite A, auth_done, FF. cbn [is_some].
        rewrite (read_auth_written h slice' t VH). cbn [bind]. rewrite DE. reflexivity.
      * exact (IH _ _ _ _ _ _ _ _ _ V (Inv_clr_auth _ _ _ I) (flags_ok_clr_auth _ _ FO) OK H).
    + destruct (auth e) as [h|] eqn:EF; cbn [is_some] in H.
      * injection H as D <- <-. apply mirrored_stop; auto. unfold stops. rewrite A, EF. reflexivity.
      * exfalso.
        destruct (read_auth slice rest) as [[[h nh] rest']|x| |] eqn:R; cbn [bind] in H; try discriminate.
        pose proof (from_slice_loop_mono _ _ _ _ _ _ _ _ H) as (_ & _ & _ & _ & M).
        specialize (M h eq_refl). congruence.
  - injection H as D <- <-. apply mirrored_stop; auto. unfold stops. rewrite A. reflexivity.
Qed.

(* ------------------------------------------------------------------ from the chunks to the mask *)
Lemma agree_app k1 k2 a1 a2 b1 b2 : agree k1 a1 b1 -> agree k2 a2 b2 -> agree (k1 ++ k2) (a1 ++ a2) (b1 ++ b2).
Proof.
  intros (A1 & B1 & M1) (A2 & B2 & M2). unfold Roundtrip.Common.agree. rewrite !len_app.
  split; [lia|]. split; [lia|].
  rewrite !Roundtrip.CommonProofs.masked_app by (apply Nat2N.inj; unfold len in *; lia).
  rewrite M1, M2. reflexivity.
Qed.

Lemma agree_nil : agree [] [] [].
Proof. repeat split. Qed.

Lemma part_rel_agree p c : part_valid p = true -> part_rel p c -> agree (part_mask p) (part_bytes p) c.
Proof.
  intros V R. destruct (part_to_bytes_valid p V) as (_ & LB & LM).
  destruct p as [h|h|h]; cbn [part_rel part_mask part_bytes part_len] in *.
  - subst c. repeat split; lia.
  - destruct R as (b0 & b1 & b2 & b3 & b4 & b5 & b6 & b7 & -> & TB). rewrite TB.
    split; [reflexivity|]. split; [reflexivity|].
    unfold Roundtrip.Frag.frag_keep_mask. cbn [Roundtrip.Common.masked].
    rewrite N.land_0_r, N.land_0_r, <- N.land_assoc, N.land_diag. reflexivity.
  - destruct R as (b0 & b1 & b2 & b3 & body & -> & TB). rewrite TB in *.
    split; [lia|]. split; [rewrite len_app in *; change (len [b0; b1; b2; b3]) with 4; change (len [b0; b1; 0; 0]) with 4 in LB; lia|].
    unfold Roundtrip.Auth.ah_keep_mask. cbn [app Roundtrip.Common.masked].
    rewrite !N.land_0_r. reflexivity.
Qed.

Lemma parts_rel_agree ps : forall c, Forall (fun p => part_valid p = true) ps -> parts_rel ps c ->
  agree (parts_mask ps) (parts_bytes ps) c.
Proof.
  induction ps as [|p ps IH]; intros c F R.
  - cbn [parts_rel] in R. subst c. exact agree_nil.
  - cbn [parts_rel] in R. destruct R as (c1 & c2 & -> & R1 & R2).
    inversion F as [|? ? VP F']; subst.
    rewrite parts_mask_cons, parts_bytes_cons. apply agree_app; [apply part_rel_agree; assumption|apply IH; assumption].
Qed.

(* decode -> encode for Ipv6Extensions, every accepted byte string: the consumed bytes are, part by part, the
   chunks of the chain that write emits for the decoded struct, and decoding the written bytes gives the same *)
Lemma exts6_enc_dec_parts first bs e n r : bytes_ok bs -> from_slice first bs = Ok (e, n, r) ->
  exts6_valid e = true /\
  exists cons, write e first = (parts_bytes (x6_chain e first), Ok tt) /\ next_header e first = Ok n
    /\ bs = cons ++ r /\ parts_rel (x6_chain e first) cons
    /\ forall t, from_slice first (parts_bytes (x6_chain e first) ++ t) = Ok (e, n, t).
Proof.
  intros OK H. unfold from_slice in H.
  assert (VD : exts6_valid exts6_default = true) by reflexivity.
  unfold x6_chain.
  destruct (IPV6_HOP_BY_HOP =? first) eqn:E0.
  - destruct (read_raw false bs bs) as [[[h nh] rest']|x| |] eqn:R; cbn [bind] in H; try discriminate.
    destruct (read_raw_inv _ _ _ _ _ _ OK R) as (VH & -> & EB).
    assert (OK' : bytes_ok rest') by (rewrite EB in OK; apply bytes_ok_app_r in OK; exact OK).
    assert (VS : exts6_valid (set_hop exts6_default h) = true).
    { unfold exts6_valid, set_hop. cbn. rewrite VH. reflexivity. }
    destruct (from_slice_loop_valid _ _ _ _ _ _ _ _ OK' VS H) as [V _].
    pose proof (from_slice_loop_mono _ _ _ _ _ _ _ _ H) as (MH & _). cbn in MH.
    split; [exact V|]. rewrite MH in *.
    rewrite <- (done_init_hop e h MH) in H.
    destruct (chain_mirror LOOP_FUEL e (clr_hop (flags_init e)) (r_next_header h) false
                (part_bytes (PRaw h)) bs rest' n r V
                (Inv_clr_hop _ _ _ (Inv_init e)) (flags_ok_clr_hop _ _ (flags_ok_init e)) OK' H)
      as (cons & -> & P & W & NH & RE).
    set (ch := chain_loop LOOP_FUEL e (clr_hop (flags_init e)) (r_next_header h) false) in *.
    assert (WE : write e first = (parts_bytes (PRaw h :: ch), Ok tt)).
    { unfold write. rewrite E0, MH, (raw_to_bytes_valid h VH). exact W. }
    exists (part_bytes (PRaw h) ++ cons).
    split; [exact WE|]. split; [unfold next_header; rewrite E0, MH; exact NH|].
    split; [rewrite EB, <- app_assoc; reflexivity|].
    split; [exists (part_bytes (PRaw h)), cons; repeat split; assumption|].
    intros t. unfold from_slice. rewrite E0, parts_bytes_cons. cbn [part_bytes].
    rewrite <- app_assoc, (read_raw_written h false _ (parts_bytes ch ++ t) VH). cbn [bind].
    rewrite <- (done_init_hop e h MH). apply RE.
  - destruct (from_slice_loop_valid _ _ _ _ _ _ _ _ OK VD H) as [V _].
    split; [exact V|].
    rewrite <- (done_init e) in H.
    destruct (chain_mirror LOOP_FUEL e (flags_init e) first false [] bs bs n r V
                (Inv_init e) (flags_ok_init e) OK H) as (cons & EB & P & W & NH & RE).
    cbn [app] in W.
    assert (WE : write e first = (parts_bytes (chain_loop LOOP_FUEL e (flags_init e) first false), Ok tt))
      by (unfold write; rewrite E0; exact W).
    exists cons. split; [exact WE|]. split; [unfold next_header; rewrite E0; exact NH|].
    split; [exact EB|]. split; [exact P|].
    intros t. unfold from_slice. rewrite E0. rewrite <- (done_init e). apply RE.
Qed.

(* C08 decode -> encode for Ipv6Extensions under the positional mask computed from the decoded struct
   (Exts6Proofs.exts6_enc_dec states the same with the relation hdr_eq) *)
Theorem exts6_enc_dec_mask first bs e n r : bytes_ok bs -> from_slice first bs = Ok (e, n, r) ->
  exts6_valid e = true /\
  exists bs' cons, write e first = (bs', Ok tt) /\ next_header e first = Ok n
    /\ bs = cons ++ r /\ agree (x6_keep_mask e first) bs' cons
    /\ bs' = parts_bytes (x6_chain e first) /\ len bs' = header_len e
    /\ forall t, from_slice first (bs' ++ t) = Ok (e, n, t).
Proof.
  intros OK H. destruct (exts6_enc_dec_parts first bs e n r OK H) as (V & cons & EW & NH & SP & P & RE).
  split; [exact V|]. exists (parts_bytes (x6_chain e first)), cons.
  split; [exact EW|]. split; [exact NH|]. split; [exact SP|].
  split; [apply parts_rel_agree; [apply (write_is_chain e first V)|exact P]|].
  split; [reflexivity|]. split; [exact (write_len e first _ V EW)|exact RE].
Qed.

(* no byte outside a fragment header's byte 1 / byte 3 or an authentication header's bytes 2-3 is masked *)
Lemma part_mask_raw h : part_mask (PRaw h) = ones (raw_header_len h). Proof. reflexivity. Qed.
Lemma part_mask_frag h : part_mask (PFrag h) = [255; 0; 255; 249; 255; 255; 255; 255]. Proof. reflexivity. Qed.
Lemma part_mask_auth h : part_mask (PAuth h) = [255; 255; 0; 0] ++ ones (auth_header_len h - 4). Proof. reflexivity. Qed.
