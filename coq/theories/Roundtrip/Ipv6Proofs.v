(* Roundtrip/Ipv6Proofs.v -- C08 for Ipv6Header *)
From EP Require Import Base.Bytes Roundtrip.Common Roundtrip.CommonProofs Roundtrip.LinkNetLemmas Roundtrip.Ipv6.
From Coq Require Import ZArith Lia ZifyN.
Local Open Scope N_scope.

(* octets 0 and 1: version 6, traffic class, top nibble of the flow label *)
Lemma ip6_P_facts tc f1 : tc < 256 -> f1 < 16 ->
  let b0 := ip6_byte0 tc in let b1 := ip6_byte1 tc f1 in
  shr b0 4 = 6 /\ bor (shl8 b0 4) (shr b1 4) = tc /\ band b1 15 = f1 /\ b0 < 256 /\ b1 < 256
  /\ bor (shl8 (band b0 15) 4) (shr b1 4) = tc /\ b0 = 96 + tc / 16 /\ b1 = (tc mod 16) * 16 + f1.
Proof.
  intros H1 H2 b0 b1.
  assert (E0 : b0 = 96 + tc / 16) by (unfold b0, ip6_byte0; rewrite (shr_div _ 4), bor_shl8_4; [reflexivity|dmlia]).
  assert (E1 : b1 = (tc mod 16) * 16 + f1) by (apply bor_shl8_4, H2).
  clearbody b0 b1. rewrite !(shr_div _ 4), !band_15, !bor_shl8_4 by dmlia. repeat split; dmlia.
Qed.

Lemma ip6_Q_facts b0 b1 : b0 < 256 -> b1 < 256 -> shr b0 4 = 6 ->
  let tc := bor (shl8 b0 4) (shr b1 4) in
  ip6_byte0 tc = b0 /\ ip6_byte1 tc (band b1 15) = b1 /\ tc < 256 /\ band b1 15 < 16
  /\ bor (shl8 (band b0 15) 4) (shr b1 4) = tc.
Proof.
  intros H0 H1 V tc. rewrite (shr_div _ 4) in V.
  assert (E : tc = (b0 mod 16) * 16 + b1 / 16) by (unfold tc; rewrite (shr_div _ 4); apply bor_shl8_4; dmlia).
  clearbody tc. unfold ip6_byte0, ip6_byte1. rewrite !(shr_div _ 4), !band_15, !bor_shl8_4 by dmlia. repeat split; dmlia.
Qed.

(* ---- flow label: 20 bits in a u32 ---- *)
Lemma ip6_fl_digits fl : fl < 1048576 ->
  (fl / 256 / 256 / 256) mod 256 = 0 /\ (fl / 256 / 256) mod 256 < 16
  /\ be32 0 ((fl / 256 / 256) mod 256) ((fl / 256) mod 256) (fl mod 256) = fl.
Proof.
  intros H.
  assert (B : fl < 4294967296) by lia.
  pose proof (u32_be_roundtrip fl B) as R.
  assert (Z : fl / 256 / 256 / 256 = 0).
  { rewrite !N.div_div by lia. apply N.div_small. lia. }
  assert (F : fl / 256 / 256 < 16).
  { rewrite N.div_div by lia. apply N.div_lt_upper_bound; lia. }
  rewrite Z in *. rewrite (N.mod_small 0 256) in * by lia.
  rewrite (N.mod_small (fl / 256 / 256) 256) in * by lia.
  repeat split; assumption.
Qed.

Lemma wf_ip6_iff h : wf_ip6 h = true <->
  i6_traffic_class h < 256 /\ i6_flow_label h < 1048576 /\ i6_payload_length h < 65536
  /\ i6_next_header h < 256 /\ i6_hop_limit h < 256
  /\ len (i6_source h) = 16 /\ bytes_ok (i6_source h)
  /\ len (i6_destination h) = 16 /\ bytes_ok (i6_destination h).
Proof. unfold wf_ip6. rewrite !andb_true_iff, !N.ltb_lt, !N.eqb_eq, !bytes_okb_spec. tauto. Qed.

Lemma ip6_wf_facts h : wf_ip6 h = true ->
  i6_traffic_class h < 256 /\ i6_flow_label h < 1048576 /\ i6_payload_length h < 65536
  /\ i6_next_header h < 256 /\ i6_hop_limit h < 256
  /\ len (i6_source h) = 16 /\ bytes_ok (i6_source h)
  /\ len (i6_destination h) = 16 /\ bytes_ok (i6_destination h).
Proof. apply wf_ip6_iff. Qed.

(* the first 8 bytes *)
Definition ip6_head (h : Ipv6Header) : bytes :=
  [ip6_byte0 (i6_traffic_class h);
   ip6_byte1 (i6_traffic_class h) ((i6_flow_label h / 256 / 256) mod 256);
   (i6_flow_label h / 256) mod 256; i6_flow_label h mod 256;
   (i6_payload_length h / 256) mod 256; i6_payload_length h mod 256;
   i6_next_header h; i6_hop_limit h].

Lemma ip6_to_bytes_explicit h : ip6_to_bytes h = ip6_head h ++ i6_source h ++ i6_destination h.
Proof. reflexivity. Qed.

Lemma len_ip6_to_bytes h : wf_ip6 h = true -> len (ip6_to_bytes h) = 40.
Proof.
  intros W. destruct (ip6_wf_facts h W) as (_ & _ & _ & _ & _ & LS & _ & LD & _).
  rewrite ip6_to_bytes_explicit, !len_app, LS, LD. reflexivity.
Qed.

Theorem ip6_ser_agree h out : wf_ip6 h = true ->
  ip6_write out h = out ++ ip6_to_bytes h /\ len (ip6_to_bytes h) = ip6_header_len h.
Proof. intros W. split; [reflexivity|apply len_ip6_to_bytes; assumption]. Qed.

Lemma ip6_to_header_enc h : wf_ip6 h = true -> ip6_to_header (ip6_to_bytes h) = Ok h.
Proof.
  intros W. destruct (ip6_wf_facts h W) as (R1 & R2 & R3 & R4 & R5 & LS & BS & LD & BD).
  destruct (ip6_fl_digits _ R2) as (F0 & F1 & F2).
  destruct (ip6_P_facts _ _ R1 F1) as (P1 & P2 & P3 & P4 & P5 & _). cbv zeta in *.
  assert (S1 : slice_range (ip6_to_bytes h) 8 24 = Some (i6_source h)).
  { rewrite ip6_to_bytes_explicit. apply slice_range_mid3; [reflexivity|rewrite LS; reflexivity]. }
  assert (S2 : slice_range (ip6_to_bytes h) 24 40 = Some (i6_destination h)).
  { rewrite ip6_to_bytes_explicit, app_assoc. rewrite <- (app_nil_r (i6_destination h)) at 1.
    apply slice_range_mid3; [rewrite len_app, LS; reflexivity|rewrite LD; reflexivity]. }
  revert S1 S2. rewrite ip6_to_bytes_explicit. unfold ip6_head. cbn [app]. intros S1 S2.
  unfold ip6_to_header. rewrite S1, S2, P2, P3, F2, (u16_be_roundtrip _ R3). destruct h. reflexivity.
Qed.

Theorem ip6_dec_enc h rest : wf_ip6 h = true ->
  ip6_from_slice (ip6_to_bytes h ++ rest) = Ok (h, rest) /\ ip6_read (ip6_to_bytes h ++ rest) = Ok (h, rest).
Proof.
  intros W. pose proof (ip6_to_header_enc h W) as HD. pose proof (len_ip6_to_bytes h W) as LE.
  destruct (ip6_wf_facts h W) as (R1 & R2 & R3 & R4 & R5 & LS & BS & LD & BD).
  destruct (ip6_fl_digits _ R2) as (F0 & F1 & F2).
  destruct (ip6_P_facts _ _ R1 F1) as (P1 & P2 & P3 & P4 & P5 & P6 & _). cbv zeta in *.
  split.
  - unfold ip6_from_slice, ip6_slice_from_slice. rewrite ltb_len_app by (symmetry; exact LE).
    assert (R0 : rd (ip6_to_bytes h ++ rest) 0 = Some (ip6_byte0 (i6_traffic_class h))) by reflexivity.
    rewrite R0, P1. change (6 =? 6) with true. cbn [negb].
    rewrite take_app_len, HD, slice_from_app by (symmetry; exact LE). reflexivity.
  - set (T := [ip6_byte1 (i6_traffic_class h) ((i6_flow_label h / 256 / 256) mod 256);
               (i6_flow_label h / 256) mod 256; i6_flow_label h mod 256;
               (i6_payload_length h / 256) mod 256; i6_payload_length h mod 256;
               i6_next_header h; i6_hop_limit h]).
    set (B39 := T ++ i6_source h ++ i6_destination h).
    assert (L39 : len B39 = 39) by (unfold B39; rewrite !len_app, LS, LD; reflexivity).
    assert (EQ : ip6_to_bytes h ++ rest = [ip6_byte0 (i6_traffic_class h)] ++ (B39 ++ rest)).
    { rewrite ip6_to_bytes_explicit. unfold B39, ip6_head, T. cbn [app]. rewrite <- !app_assoc. reflexivity. }
    rewrite EQ. unfold ip6_read. rewrite read_exact_app by reflexivity. cbv iota beta zeta.
    rewrite P1. change (6 =? 6) with true. cbn [negb].
    unfold ip6_read_without_version. rewrite read_exact_app by (symmetry; exact L39).
    assert (S1 : slice_range B39 7 23 = Some (i6_source h)).
    { unfold B39. apply slice_range_mid3; [reflexivity|rewrite LS; reflexivity]. }
    assert (S2 : slice_range B39 23 39 = Some (i6_destination h)).
    { unfold B39. rewrite app_assoc. rewrite <- (app_nil_r (i6_destination h)) at 1.
      apply slice_range_mid3; [rewrite len_app, LS; reflexivity|rewrite LD; reflexivity]. }
    revert S1 S2. unfold B39, T. cbn [app]. intros S1 S2. rewrite S1, S2.
    rewrite P6, P3, F2, (u16_be_roundtrip _ R3). destruct h. reflexivity.
Qed.

(* no reserved bits: re-encoding reproduces the 40 consumed bytes exactly *)
Theorem ip6_enc_dec bs h rest : bytes_ok bs -> ip6_from_slice bs = Ok (h, rest) ->
  wf_ip6 h = true /\ bs = ip6_to_bytes h ++ rest /\ len (ip6_to_bytes h) = 40
  /\ ip6_from_slice (ip6_to_bytes h) = Ok (h, []).
Proof.
  intros OK H. unfold ip6_from_slice, ip6_slice_from_slice in H.
  destruct (len bs <? 40) eqn:L; [discriminate|]. apply N.ltb_ge in L.
  destruct bs as [|b0 [|b1 [|b2 [|b3 [|b4 [|b5 [|b6 [|b7 r]]]]]]]];
    try (rewrite ?len_cons, ?len_nil in L; lia).
  match type of H with context [rd ?s 0] => change (rd s 0) with (Some b0) in H end.
  cbv iota beta zeta in H.
  destruct (shr b0 4 =? 6) eqn:V; [|discriminate]. cbn [negb] in H. apply N.eqb_eq in V.
  pose proof OK as OK'. bytes_ok_split OK'.
  set (H8 := [b0; b1; b2; b3; b4; b5; b6; b7]) in *.
  set (bs := b0 :: b1 :: b2 :: b3 :: b4 :: b5 :: b6 :: b7 :: r) in *.
  assert (EB : bs = H8 ++ r) by reflexivity.
  assert (LR : 32 <= len r) by (unfold bs in L; rewrite !len_cons in L; lia).
  set (S := take 16 r). set (D := take 16 (drop 16 r)).
  assert (LS : len S = 16) by (unfold S; rewrite len_take; lia).
  assert (LD : len D = 16) by (unfold D; rewrite len_take, len_drop; lia).
  assert (T32 : take 32 r = S ++ D) by (apply (take_drop_split r 16 16)).
  assert (TK : take 40 bs = H8 ++ S ++ D).
  { rewrite EB, <- T32. apply take_app_more. reflexivity. }
  assert (RS : r = S ++ D ++ drop 32 r) by (rewrite app_assoc, <- T32; symmetry; apply take_drop).
  assert (BS : bytes_ok S) by (unfold S; apply bytes_ok_take; exact OK').
  assert (BD : bytes_ok D) by (unfold D; apply bytes_ok_take, bytes_ok_drop; exact OK').
  rewrite TK in H.
  assert (S1 : slice_range (H8 ++ S ++ D) 8 24 = Some S)
    by (apply slice_range_mid3; [reflexivity|rewrite LS; reflexivity]).
  assert (S2 : slice_range (H8 ++ S ++ D) 24 40 = Some D).
  { rewrite app_assoc. rewrite <- (app_nil_r D) at 1.
    apply slice_range_mid3; [rewrite len_app, LS; reflexivity|rewrite LD; reflexivity]. }
  revert S1 S2 H. unfold H8. cbn [app]. intros S1 S2 H. unfold ip6_to_header in H. rewrite S1, S2 in H.
  unfold slice_from in H. replace (40 <=? len bs) with true in H by (symmetry; apply N.leb_le; exact L).
  apply Ok_inj in H. apply pair_equal_spec in H. destruct H as [Hh Hrest].
  destruct (ip6_Q_facts b0 b1 B B0 V) as (Q1 & Q2 & Q3 & Q4 & _). cbv zeta in *.
  pose proof (u32_to_be_be32 0 (band b1 15) b2 b3 ltac:(lia) ltac:(lia) B1 B2) as FL.
  unfold u32_to_be in FL. injection FL as FL0 FL1 FL2 FL3.
  pose proof (u16_to_be_be16 b4 b5 B3 B4) as PL. unfold u16_to_be in PL. injection PL as PL0 PL1.
  assert (FB : be32 0 (band b1 15) b2 b3 < 1048576) by (unfold be32; lia).
  assert (WF : wf_ip6 h = true).
  { rewrite <- Hh. apply wf_ip6_iff.
    cbn [i6_traffic_class i6_flow_label i6_payload_length i6_next_header i6_hop_limit i6_source i6_destination].
    pose proof (be16_bound b4 b5 B3 B4). repeat split; assumption. }
  assert (ENC : ip6_to_bytes h = H8 ++ S ++ D).
  { rewrite ip6_to_bytes_explicit. rewrite <- Hh. unfold ip6_head.
    cbn [i6_traffic_class i6_flow_label i6_payload_length i6_next_header i6_hop_limit i6_source i6_destination].
    rewrite FL1, FL2, FL3, PL0, PL1, Q1, Q2. reflexivity. }
  split; [exact WF|]. split; [|split].
  - rewrite ENC, <- Hrest. change (drop 40 bs) with (drop 32 r). rewrite EB.
    rewrite (app_assoc H8), <- (app_assoc (H8 ++ S)), <- (app_assoc H8). f_equal. exact RS.
  - apply len_ip6_to_bytes. exact WF.
  - destruct (ip6_dec_enc h [] WF) as [E _]. rewrite app_nil_r in E. exact E.
Qed.

(* ---- the serialiser writes the RFC 8200 layout ---- *)
From EP Require Import Roundtrip.Spec Roundtrip.SpecLinkNet.

Theorem ip6_spec h : wf_ip6 h = true ->
  ip6_to_bytes h = ipv6_layout (i6_traffic_class h) (i6_flow_label h) (i6_payload_length h)
                     (i6_next_header h) (i6_hop_limit h) (i6_source h) (i6_destination h).
Proof.
  intros W. destruct (ip6_wf_facts h W) as (R1 & R2 & R3 & R4 & R5 & LS & BS & LD & BD).
  destruct (ip6_fl_digits _ R2) as (F0 & F1 & F2).
  destruct (ip6_P_facts _ _ R1 F1) as (_ & _ & _ & P4 & P5 & _ & P7 & P8). cbv zeta in *.
  rewrite ip6_to_bytes_explicit. unfold ipv6_layout, ip6_head.
  set (f1 := (i6_flow_label h / 256 / 256) mod 256) in *.
  set (f2 := (i6_flow_label h / 256) mod 256) in *. set (f3 := i6_flow_label h mod 256) in *.
  assert (B2 : f2 < 256) by (apply N.mod_lt; lia). assert (B3 : f3 < 256) by (apply N.mod_lt; lia).
  set (b0 := ip6_byte0 (i6_traffic_class h)) in *.
  set (b1 := ip6_byte1 (i6_traffic_class h) f1) in *.
  assert (E : 6 * 268435456 + i6_traffic_class h * 1048576 + i6_flow_label h = be32 b0 b1 f2 f3).
  { rewrite <- F2 at 1. unfold be32. rewrite P7, P8.
    pose proof (N.div_mod (i6_traffic_class h) 16 ltac:(lia)) as X.
    set (th := i6_traffic_class h / 16) in *. set (tl := i6_traffic_class h mod 16) in *.
    clearbody th tl f1 f2 f3. lia. }
  rewrite E. change (field 4 (be32 b0 b1 f2 f3)) with (u32_to_be (be32 b0 b1 f2 f3)).
  rewrite (u32_to_be_be32 b0 b1 f2 f3 P4 P5 B2 B3). reflexivity.
Qed.
