(* What the proofs for the three control-message headers (ICMPv4, ICMPv6, IGMP) share:
   each is decoded by a lookup of its type (and code) octets in an RFC table of
   CtlMsg/Spec.v and encoded as eight octets with the checksum in octets 2..3. *)
From EP Require Import Base.Bytes.
From EP Require Import CtlMsg.Spec.
From EP Require Import Roundtrip.Common Roundtrip.CommonProofs.
From Coq Require Import ZArith Lia Bool.
Local Open Scope N_scope.

Lemma len8 {A} (a b c d e f g h : A) r : len (a :: b :: c :: d :: e :: f :: g :: h :: r) = 8 + len r.
Proof. rewrite !len_cons. lia. Qed.

Lemma mod256_lt x : x mod 256 < 256.
Proof. apply N.mod_lt. lia. Qed.

Lemma be16_hi a b : a < 256 -> b < 256 -> (be16 a b / 256) mod 256 = a.
Proof. intros Ha Hb. pose proof (u16_to_be_be16 a b Ha Hb) as E. unfold u16_to_be in E. congruence. Qed.
Lemma be16_lo a b : a < 256 -> b < 256 -> be16 a b mod 256 = b.
Proof. intros Ha Hb. pose proof (u16_to_be_be16 a b Ha Hb) as E. unfold u16_to_be in E. congruence. Qed.

Lemma agree_ones_refl a : bytes_ok a -> agree (ones (len a)) a a.
Proof.
  intros H. apply agree_of_masked; [apply len_ones|]. symmetry. apply masked_ones. exact H.
Qed.

(* A goal that looks a variable pair up in a table written out as a list: one case per row. *)
Ltac table_cases :=
  repeat match goal with
         | |- context [if ?b then _ else _] => destruct b; [reflexivity|]
         end.

(* The same for a hypothesis `lookup .. = Some f` after `cbn [lookup]`: one goal per row,
   with the row's test as E. *)
Ltac split_table LT :=
  match type of LT with
  | (if ?b then _ else _) = _ => let E := fresh "E" in destruct b eqn:E; [ | clear E; split_table LT]
  | None = Some _ => discriminate LT
  end.

(* A pair that is not in a table fails every test that only listed pairs pass.  The keep
   masks zero octets only under such tests, which is why raw (type, code) pairs keep all
   eight octets. *)
Section Unlisted.
  Context {A : Type} (tbl : list (N * N * A)) (t c : N).
  Hypothesis unlisted : lookup t c tbl = None.

  Lemma unlisted_at t0 c0 : lookup t0 c0 tbl <> None -> (t =? t0) && (c =? c0) = false.
  Proof.
    intros L. apply andb_false_iff.
    destruct (N.eqb_spec t t0) as [->|]; [|now left]. destruct (N.eqb_spec c c0) as [->|]; [|now right].
    contradiction.
  Qed.

  Lemma unlisted_upto t0 m :
    all_below (S (N.to_nat m)) (fun c0 => match lookup t0 c0 tbl with Some _ => true | None => false end) = true ->
    (t =? t0) && (c <=? m) = false.
  Proof.
    intros S. apply andb_false_iff.
    destruct (N.eqb_spec t t0) as [->|]; [|now left]. destruct (N.leb_spec c m) as [Hc|]; [|now right].
    pose proof (all_below_spec _ _ S c ltac:(lia)) as X. cbv beta in X. rewrite unlisted in X. discriminate X.
  Qed.
End Unlisted.
