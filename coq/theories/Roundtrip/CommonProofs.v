(* Roundtrip/CommonProofs.v -- lemmas about the vocabulary of Common.v *)
From EP Require Import Base.Bytes Roundtrip.Common.
From EP Require Export Base.Lists.
Local Open Scope N_scope.
From Coq Require Import ZArith Lia ZifyN.

(* ---- big endian ---- *)
Lemma u16_be_roundtrip v : v < 65536 -> be16 ((v / 256) mod 256) (v mod 256) = v.
Proof. exact (be16_to_be16 v). Qed.

Lemma u16_to_be_be16 a b : a < 256 -> b < 256 -> u16_to_be (be16 a b) = [a; b].
Proof. exact (to_be16_be16 a b). Qed.

Lemma be16_bound a b : a < 256 -> b < 256 -> be16 a b < 65536.
Proof. unfold be16. lia. Qed.

Lemma u32_be_roundtrip v : v < 4294967296 ->
  be32 ((v / 256 / 256 / 256) mod 256) ((v / 256 / 256) mod 256) ((v / 256) mod 256) (v mod 256) = v.
Proof.
  intros H. unfold be32.
  set (q1 := v / 256). set (q2 := q1 / 256). set (q3 := q2 / 256).
  assert (E1 : v = 256 * q1 + v mod 256) by (apply N.div_mod; lia).
  assert (E2 : q1 = 256 * q2 + q1 mod 256) by (apply N.div_mod; lia).
  assert (E3 : q2 = 256 * q3 + q2 mod 256) by (apply N.div_mod; lia).
  assert (B1 : v mod 256 < 256) by (apply N.mod_lt; lia).
  assert (B2 : q1 mod 256 < 256) by (apply N.mod_lt; lia).
  assert (B3 : q2 mod 256 < 256) by (apply N.mod_lt; lia).
  assert (B4 : q3 < 256) by lia.
  rewrite (N.mod_small q3 256) by assumption. lia.
Qed.

Lemma u32_to_be_be32 a b c d : a < 256 -> b < 256 -> c < 256 -> d < 256 ->
  u32_to_be (be32 a b c d) = [a; b; c; d].
Proof.
  intros Ha Hb Hc Hd. unfold u32_to_be, be32.
  set (x2 := a * 256 + b). set (x1 := x2 * 256 + c).
  assert (E1 : (x1 * 256 + d) / 256 = x1) by dmlia.
  assert (E0 : (x1 * 256 + d) mod 256 = d) by dmlia.
  rewrite E1, E0.
  assert (E2 : x1 / 256 = x2) by (unfold x1; dmlia).
  assert (E2' : x1 mod 256 = c) by (unfold x1; dmlia).
  rewrite E2, E2'.
  assert (E3 : x2 / 256 = a) by (unfold x2; dmlia).
  assert (E3' : x2 mod 256 = b) by (unfold x2; dmlia).
  rewrite E3, E3'. rewrite (N.mod_small a 256) by assumption. reflexivity.
Qed.

Lemma be32_bound a b c d : a < 256 -> b < 256 -> c < 256 -> d < 256 -> be32 a b c d < 4294967296.
Proof. unfold be32. lia. Qed.

Lemma len_u16_to_be v : len (u16_to_be v) = 2. Proof. reflexivity. Qed.
Lemma len_u32_to_be v : len (u32_to_be v) = 4. Proof. reflexivity. Qed.

Lemma bytes_ok_u16_to_be v : bytes_ok (u16_to_be v).
Proof. unfold u16_to_be. repeat constructor; unfold byte_ok; apply N.mod_lt; lia. Qed.
Lemma bytes_ok_u32_to_be v : bytes_ok (u32_to_be v).
Proof. unfold u32_to_be. repeat constructor; unfold byte_ok; apply N.mod_lt; lia. Qed.

(* generic width *)
Lemma of_be_acc_app acc a b : of_be_acc acc (a ++ b) = of_be_acc (of_be_acc acc a) b.
Proof. revert acc. induction a as [|x a IH]; intros acc; cbn [app of_be_acc]; auto. Qed.

Lemma len_to_be n v : length (to_be n v) = n.
Proof. revert v. induction n as [|n IH]; intros v; cbn [to_be length]; auto.
  rewrite app_length, IH. cbn [length]. lia. Qed.

Lemma bytes_ok_to_be n v : bytes_ok (to_be n v).
Proof. revert v. induction n as [|n IH]; intros v; cbn [to_be].
  - constructor.
  - apply bytes_ok_app. split; [apply IH|]. repeat constructor. unfold byte_ok. apply N.mod_lt. lia. Qed.

Lemma of_be_to_be n v : v < 256 ^ (N.of_nat n) -> of_be (to_be n v) = v.
Proof.
  unfold of_be. revert v. induction n as [|n IH]; intros v H.
  - cbn [to_be of_be_acc]. change (256 ^ N.of_nat 0) with 1 in H. lia.
  - cbn [to_be]. rewrite of_be_acc_app. cbn [of_be_acc].
    rewrite IH.
    + pose proof (N.div_mod v 256). lia.
    + replace (N.of_nat (S n)) with (N.succ (N.of_nat n)) in H by lia.
      rewrite N.pow_succ_r' in H. apply N.div_lt_upper_bound; lia.
Qed.

Lemma of_be_acc_bound acc bs : bytes_ok bs ->
  of_be_acc acc bs < (acc + 1) * 256 ^ (len bs).
Proof.
  revert acc. induction bs as [|b r IH]; intros acc H.
  - cbn [of_be_acc]. rewrite len_nil. change (256 ^ 0) with 1. lia.
  - apply bytes_ok_cons in H. destruct H as [Hb Hr]. unfold byte_ok in Hb.
    cbn [of_be_acc]. specialize (IH (acc * 256 + b) Hr).
    rewrite len_cons. replace (1 + len r) with (N.succ (len r)) by lia.
    rewrite N.pow_succ_r'. 
    eapply N.lt_le_trans; [exact IH|].
    set (P := 256 ^ len r).
    apply N.le_trans with (m := ((acc + 1) * 256) * P); [apply N.mul_le_mono_r; lia | lia].
Qed.

Lemma to_be_of_be_acc n acc bs : bytes_ok bs -> length bs = n ->
  to_be n (of_be_acc acc bs) = bs /\ of_be_acc acc bs / 256 ^ (N.of_nat n) = acc.
Proof.
  revert n acc. induction bs as [|b r IH] using rev_ind; intros n acc H L.
  - cbn in L. subst n. cbn [to_be of_be_acc]. split; auto. change (256 ^ N.of_nat 0) with 1. apply N.div_1_r.
  - rewrite app_length in L. cbn [length] in L. destruct n as [|n]; [lia|].
    apply bytes_ok_app in H. destruct H as [Hr Hb]. apply bytes_ok_cons in Hb. destruct Hb as [Hb _].
    unfold byte_ok in Hb.
    rewrite of_be_acc_app. cbn [of_be_acc to_be].
    set (a := of_be_acc acc r).
    assert (E1 : (a * 256 + b) / 256 = a) by dmlia.
    assert (E0 : (a * 256 + b) mod 256 = b) by dmlia.
    rewrite E1, E0.
    destruct (IH n acc Hr ltac:(lia)) as [I1 I2]. fold a in I1, I2.
    split; [now rewrite I1|].
    replace (N.of_nat (S n)) with (N.succ (N.of_nat n)) by lia.
    rewrite N.pow_succ_r', <- N.div_div, E1 by lia. exact I2.
Qed.

Lemma to_be_of_be bs : bytes_ok bs -> to_be (length bs) (of_be bs) = bs.
Proof. intros H. apply (to_be_of_be_acc (length bs) 0 bs H eq_refl). Qed.

Lemma of_be_bound bs : bytes_ok bs -> of_be bs < 256 ^ (len bs).
Proof. intros H. pose proof (of_be_acc_bound 0 bs H). unfold of_be. lia. Qed.

(* ---- bit operations as arithmetic ---- *)
(* a value shifted left by k and a value below 2^k occupy disjoint bits *)
Lemma lor_shiftl_low a k b : b < 2 ^ k -> N.lor (N.shiftl a k) b = a * 2 ^ k + b.
Proof.
  intros H. set (x := N.lor (N.shiftl a k) b).
  assert (P : 2 ^ k <> 0) by (apply N.pow_nonzero; discriminate).
  assert (Q : x / 2 ^ k = a).
  { unfold x. rewrite <- !N.shiftr_div_pow2, N.shiftr_lor, N.shiftr_shiftl_l, N.sub_diag, N.shiftl_0_r by reflexivity.
    rewrite (N.shiftr_div_pow2 b), N.div_small by exact H. apply N.lor_0_r. }
  assert (R : x mod 2 ^ k = b).
  { unfold x. rewrite <- !N.land_ones, N.land_lor_distr_l, !N.land_ones, N.shiftl_mul_pow2, N.mod_mul by exact P.
    apply N.mod_small, H. }
  rewrite (N.div_mod x (2 ^ k) P), Q, R. lia.
Qed.

Lemma nz_band_1 x : nz (band x 1) = (x mod 2 =? 1).
Proof.
  unfold nz, band. change (N.land x 1) with (N.land x (N.ones 1)). rewrite N.land_ones. change (2 ^ 1) with 2.
  pose proof (N.mod_lt x 2 ltac:(discriminate)) as B.
  assert (x mod 2 = 0 \/ x mod 2 = 1) as [-> | ->] by lia; reflexivity.
Qed.

Lemma as_u8_small x : x < 256 -> as_u8 x = x.
Proof. apply N.mod_small. Qed.

Lemma shr_div x k : shr x k = x / 2 ^ k.
Proof. apply N.shiftr_div_pow2. Qed.

(* masking with the low k bits *)
Lemma band_low_lt x k : band x (N.ones k) < 2 ^ k.
Proof. unfold band. rewrite N.land_ones. apply N.mod_lt, N.pow_nonzero. discriminate. Qed.

Lemma band_low_small x k : x < 2 ^ k -> band x (N.ones k) = x.
Proof. intros H. unfold band. rewrite N.land_ones. apply N.mod_small, H. Qed.

Lemma band_15 x : band x 15 = x mod 16.
Proof. apply (N.land_ones x 4). Qed.

(* (hi << 4) | lo  on a u8 *)
Lemma bor_shl8_4 hi lo : lo < 16 -> bor (shl8 hi 4) lo = (hi mod 16) * 16 + lo.
Proof.
  intros H. unfold bor, shl8. rewrite N.shiftl_mul_pow2. change (2 ^ 4) with 16.
  replace ((hi * 16) mod 256) with (N.shiftl (hi mod 16) 4)
    by (rewrite N.shiftl_mul_pow2; change (2 ^ 4) with 16; dmlia).
  apply (lor_shiftl_low _ 4), H.
Qed.

(* ---- lists ---- *)
Lemma take_app_more {A} (a b : list A) n k : n = len a + k -> take n (a ++ b) = a ++ take k b.
Proof.
  intros ->. unfold take, len. rewrite firstn_app.
  rewrite firstn_all2 by lia. f_equal. f_equal. lia.
Qed.

Lemma drop_app_more {A} (a b : list A) n k : n = len a + k -> drop n (a ++ b) = drop k b.
Proof.
  intros ->. unfold drop, len. rewrite skipn_app.
  rewrite skipn_all2 by lia. cbn [app]. f_equal. lia.
Qed.

Lemma take_app_le {A} (a b : list A) n : n <= len a -> take n (a ++ b) = take n a.
Proof.
  intros H. unfold take, len in *. rewrite firstn_app.
  replace (N.to_nat n - length a)%nat with 0%nat by lia. cbn [firstn]. apply app_nil_r.
Qed.

Lemma drop_app_le {A} (a b : list A) n : n <= len a -> drop n (a ++ b) = drop n a ++ b.
Proof.
  intros H. unfold drop, len in *. rewrite skipn_app.
  replace (N.to_nat n - length a)%nat with 0%nat by lia. reflexivity.
Qed.

Lemma rd_app_lt (a b : bytes) i : i < len a -> rd (a ++ b) i = rd a i.
Proof. intros H. unfold rd, len in *. apply nth_error_app1. lia. Qed.

Lemma len_zeros n : len (zeros n) = n.
Proof. unfold len, zeros. rewrite repeat_length. lia. Qed.
Lemma len_ones n : len (ones n) = n.
Proof. unfold len, ones. rewrite repeat_length. lia. Qed.

Lemma bytes_ok_zeros n : bytes_ok (zeros n).
Proof. unfold zeros, bytes_ok. apply Forall_forall. intros x Hx. apply repeat_spec in Hx. subst. unfold byte_ok. lia. Qed.

Lemma len_ge_cons {A} (l : list A) n : 1 + n <= len l -> exists x r, l = x :: r /\ n <= len r.
Proof. destruct l as [|x r]; [rewrite len_nil; lia|]. rewrite len_cons. intros H. exists x, r. split; auto. lia. Qed.

Lemma take_drop_split {A} (l : list A) a b : take (a + b) l = take a l ++ take b (drop a l).
Proof.
  unfold take, drop. replace (N.to_nat (a + b)) with (N.to_nat a + N.to_nat b)%nat by lia.
  revert l. induction (N.to_nat a) as [|n IH]; intros l; cbn [Nat.add firstn skipn app]; auto.
  destruct l as [|x l]; cbn [firstn skipn app].
  - now rewrite firstn_nil.
  - now rewrite IH.
Qed.

(* ---- framing: slicing and reading a concatenation at the seam ---- *)
Lemma ltb_len_app {A} (a b : list A) n : n = len a -> (len (a ++ b) <? n) = false.
Proof. intros ->. rewrite len_app. apply N.ltb_ge. lia. Qed.

Lemma slice_from_app (a b : bytes) n : n = len a -> slice_from (a ++ b) n = Some b.
Proof.
  intros ->. unfold slice_from. rewrite len_app, (proj2 (N.leb_le _ _)) by lia.
  rewrite drop_app_len; reflexivity.
Qed.

Lemma slice_from_ok s n r : slice_from s n = Some r -> n <= len s /\ r = drop n s.
Proof.
  unfold slice_from. destruct (n <=? len s) eqn:E; [|discriminate]. apply N.leb_le in E.
  intros H. injection H as <-. auto.
Qed.

Lemma read_exact_app (a b : bytes) n : n = len a -> read_exact (a ++ b) n = Ok (a, b).
Proof.
  intros E. unfold read_exact. rewrite (ltb_len_app a b n E), (take_app_len a b n E), (drop_app_len a b n E).
  reflexivity.
Qed.

Lemma slice_range_0 s n : n <= len s -> slice_range s 0 n = Some (take n s).
Proof.
  intros H. unfold slice_range. rewrite (proj2 (N.leb_le _ _) H), (proj2 (N.leb_le 0 n)), N.sub_0_r by lia. reflexivity.
Qed.

(* ---- masked ---- *)
Lemma masked_app k1 k2 a b : length k1 = length a ->
  masked (k1 ++ k2) (a ++ b) = masked k1 a ++ masked k2 b.
Proof.
  revert a. induction k1 as [|k k1 IH]; intros [|x a] L; cbn in L; try discriminate; cbn [app masked]; auto.
  now rewrite IH by lia.
Qed.

Lemma masked_ones bs : bytes_ok bs -> masked (ones (len bs)) bs = bs.
Proof.
  induction bs as [|b r IH]; intros H; [reflexivity|].
  apply bytes_ok_cons in H. destruct H as [Hb Hr]. unfold byte_ok in Hb.
  unfold ones. rewrite len_cons.
  replace (N.to_nat (1 + len r)) with (S (N.to_nat (len r))) by lia.
  cbn [repeat masked]. fold (ones (len r)). rewrite IH by assumption. f_equal.
  change 255 with (N.ones 8). rewrite N.land_ones. apply N.mod_small. exact Hb.
Qed.

Lemma len_masked k a : length k = length a -> len (masked k a) = len a.
Proof.
  revert a. induction k as [|x k IH]; intros [|y a] L; cbn in L; try discriminate; cbn [masked]; auto.
  rewrite !len_cons, IH by lia. reflexivity.
Qed.

(* ---- sweeps ---- *)
Lemma nrange_in n x : x < N.of_nat n -> In x (nrange n).
Proof.
  induction n as [|n IH]; intros H; [lia|].
  cbn [nrange]. apply in_or_app.
  destruct (N.eq_dec x (N.of_nat n)) as [->|Hne]; [right; now left|left; apply IH; lia].
Qed.

Lemma all_below_spec n P : all_below n P = true -> forall x, x < N.of_nat n -> P x = true.
Proof. unfold all_below. rewrite forallb_forall. intros H x Hx. apply H, nrange_in, Hx. Qed.

Lemma all_byte P : all_below 256 P = true -> forall x, x < 256 -> P x = true.
Proof. intros H x Hx. apply (all_below_spec 256 P H). exact Hx. Qed.

Lemma all_bool_spec P : all_bool P = true -> forall b, P b = true.
Proof. unfold all_bool. intros H b. apply andb_true_iff in H. destruct H, b; auto. Qed.

Lemma bytes_eqb_refl a : bytes_eqb a a = true.
Proof.
  unfold bytes_eqb. rewrite Nat.eqb_refl. cbn [andb].
  induction a as [|x a IH]; cbn [combine forallb fst snd]; auto. now rewrite N.eqb_refl, IH.
Qed.

Lemma bytes_eqb_eq a b : bytes_eqb a b = true -> a = b.
Proof.
  unfold bytes_eqb. intros H. apply andb_true_iff in H. destruct H as [L F].
  apply Nat.eqb_eq in L. revert b L F.
  induction a as [|x a IH]; intros [|y b] L F; cbn in L; try discriminate; auto.
  cbn [combine forallb fst snd] in F. apply andb_true_iff in F. destruct F as [E F].
  apply N.eqb_eq in E. subst. f_equal. apply IH; auto.
Qed.

(* decompose hypotheses of the form  a && b = true, x =? y = true, x <? y = true ... *)
Ltac bsplit H :=
  match type of H with
  | (_ && _)%bool = true =>
      let H1 := fresh H in let H2 := fresh H in
      apply andb_true_iff in H; destruct H as [H1 H2]; bsplit H1; bsplit H2
  | (_ =? _) = true => apply N.eqb_eq in H
  | (_ <? _) = true => apply N.ltb_lt in H
  | (_ <=? _) = true => apply N.leb_le in H
  | Bool.eqb _ _ = true => apply Bool.eqb_prop in H
  | _ => idtac
  end.

(* ---- agree ---- *)
Lemma masked_idem k c : masked k (masked k c) = masked k c.
Proof.
  revert c. induction k as [|x k IH]; intros [|y c]; cbn [masked]; auto.
  rewrite IH. f_equal. rewrite <- N.land_assoc, N.land_diag. reflexivity.
Qed.

Lemma agree_of_masked k e c : len k = len c -> e = masked k c -> agree k e c.
Proof.
  intros L ->. unfold agree. split; [|split].
  - rewrite len_masked; [lia|]. apply Nat2N.inj. exact L.
  - lia.
  - apply masked_idem.
Qed.

Lemma land_255 b : b < 256 -> N.land b 255 = b.
Proof. intros H. change 255 with (N.ones 8). rewrite N.land_ones. apply N.mod_small. exact H. Qed.

Lemma masked_ones_app a k b : bytes_ok a -> masked (ones (len a) ++ k) (a ++ b) = a ++ masked k b.
Proof.
  intros H. rewrite masked_app.
  - now rewrite masked_ones.
  - pose proof (len_ones (len a)) as L. apply Nat2N.inj. exact L.
Qed.

Lemma bytes_ok_explicit_cons b r : b < 256 -> bytes_ok r -> bytes_ok (b :: r).
Proof. intros. apply bytes_ok_cons. split; assumption. Qed.

(* ok-ness of a byte of an explicit list hypothesis *)
Ltac bytes_ok_split H :=
  repeat (let Hb := fresh "B" in apply bytes_ok_cons in H; destruct H as [Hb H]; unfold byte_ok in Hb).

Lemma Some_inj {A} (x y : A) : Some x = Some y -> x = y.
Proof. intros H. injection H. auto. Qed.
Lemma Ok_inj {A} (x y : A) : Ok x = Ok y -> x = y.
Proof. intros H. injection H. auto. Qed.
