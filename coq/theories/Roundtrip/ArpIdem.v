(* Roundtrip/ArpIdem.v -- idempotence for ArpEthIpv4Packet (clause D of C08:
   decode(encode(decode bs)) = decode bs) stated explicitly, and the rejection classes of
   ArpPacket::try_eth_ipv4.  Only compositions of the models of Roundtrip/Arp.v. *)
From EP Require Import Base.Bytes Roundtrip.Common Roundtrip.CommonProofs Roundtrip.LinkNetLemmas Roundtrip.Arp
  Roundtrip.ArpProofs.
From Coq Require Import ZArith Lia ZifyN.
Local Open Scope N_scope.

(* every accepted byte string that converts to the Ethernet/IPv4 view: the view is well-formed, its 28
   bytes ARE the first 28 bytes of the input, and decoding them again -- whatever follows, by from_slice
   or by read -- returns THE SAME ArpPacket p (not just some packet), which converts to the same view *)
Theorem ae_idempotent bs p v : bytes_ok bs -> arp_from_slice bs = Ok p -> arp_try_eth_ipv4 p = Ok v ->
  wf_ae v = true /\ len (ae_to_bytes v) = 28 /\ bs = ae_to_bytes v ++ drop 28 bs
  /\ ae_to_arp_packet v = Some p
  /\ forall rest, arp_from_slice (ae_to_bytes v ++ rest) = Ok p
                  /\ arp_read (ae_to_bytes v ++ rest) = Ok (p, rest)
                  /\ drop 28 (ae_to_bytes v ++ rest) = rest.
Proof.
  intros OK H T.
  destruct (ae_enc_dec bs p v OK H T) as (W & L28 & TB).
  destruct (arp_enc_dec bs p OK H) as (WP & NM & PL & e & E1 & E2 & _).
  destruct (ae_ser_agree v W) as (p' & P1 & WP' & P2 & L & P3).
  (* the packet rebuilt from the view is p: both are normal and have the same bytes *)
  destruct (arp_try_eth_ipv4_ok p v T) as (_ & _ & _ & _ & PL28 & _).
  assert (EB : e = ae_to_bytes v) by (rewrite TB, E2, PL28; reflexivity).
  try subst e.
  assert (DEC : forall rest, arp_from_slice (ae_to_bytes v ++ rest) = Ok p
                             /\ arp_read (ae_to_bytes v ++ rest) = Ok (p, rest)).
  { intros rest. destruct (arp_dec_enc p rest WP) as (e' & F1 & _ & F3 & _ & F5 & _).
    rewrite E1 in F1. apply Some_inj in F1. subst e'. rewrite NM in F3, F5. rewrite EB in F3, F5. split; assumption. }
  split; [exact W|]. split; [exact L|]. split.
  { rewrite TB. symmetry. apply take_drop. }
  split.
  { (* p' = p: decode the same 28 bytes through p' *)
    destruct (arp_dec_enc p' [] WP') as (e' & F1 & _ & F3 & _).
    rewrite P2 in F1. apply Some_inj in F1. subst e'.
    rewrite (proj1 (DEC [])) in F3. apply Ok_inj in F3.
    (* arp_norm p' = p' : new_unchecked stores exactly len-many bytes *)
    rewrite P1. f_equal. rewrite F3. clear - P1 W.
    destruct (proj1 (wf_ae_iff v) W) as (_ & L1 & _ & L2 & _ & L3 & _ & L4 & _).
    unfold ae_to_arp_packet, arp_new_unchecked in P1. rewrite L1, L2, L3, L4 in P1.
    change ((255 <? 6) || (255 <? 4) || (255 <? 6) || (255 <? 4)) with false in P1. cbv iota in P1.
    apply Some_inj in P1. subst p'. unfold arp_norm.
    cbn [arp_hw_addr_type arp_proto_addr_type arp_hw_addr_size arp_proto_addr_size arp_operation
         arp_sender_hw_addr_buf arp_sender_protocol_addr_buf arp_target_hw_addr_buf arp_target_protocol_addr_buf].
    change (as_u8 6) with 6. change (as_u8 4) with 4.
    rewrite !take_all by lia. reflexivity. }
  intros rest. destruct (DEC rest) as [D1 D2]. split; [exact D1|]. split; [exact D2|].
  apply drop_app_len. symmetry. exact L.
Qed.

(* the rejection classes of try_eth_ipv4, for every well-formed ArpPacket (so for every decoded one):
   it converts exactly when hardware type = 1 (Ethernet), protocol type = 0x0800, sizes 6 and 4; otherwise
   the error names the FIRST field that differs, in this order; no undefined read (EOOB) *)
Theorem ae_try_classes p : wf_arp p = true ->
  match arp_try_eth_ipv4 p with
  | Ok v => arp_hw_addr_type p = 1 /\ arp_proto_addr_type p = 2048 /\ arp_hw_addr_size p = 6
            /\ arp_proto_addr_size p = 4 /\ wf_ae v = true /\ ae_operation v = arp_operation p
  | Err (EContent 0) => arp_hw_addr_type p <> 1
  | Err (EContent 1) => arp_hw_addr_type p = 1 /\ arp_proto_addr_type p <> 2048
  | Err (EContent 2) => arp_hw_addr_type p = 1 /\ arp_proto_addr_type p = 2048 /\ arp_hw_addr_size p <> 6
  | Err (EContent 3) => arp_hw_addr_type p = 1 /\ arp_proto_addr_type p = 2048 /\ arp_hw_addr_size p = 6
                        /\ arp_proto_addr_size p <> 4
  | Err _ => False
  end.
Proof.
  intros WP. destruct (arp_wf_facts p WP) as (R1 & R2 & R3 & H1 & H2 & W1 & W2 & W3 & W4).
  unfold arp_try_eth_ipv4, arp_assume_init.
  destruct (arp_hw_addr_type p =? 1) eqn:T1; cbn [negb]; [apply N.eqb_eq in T1|apply N.eqb_neq in T1; exact T1].
  destruct (arp_proto_addr_type p =? 2048) eqn:T2; cbn [negb]; [apply N.eqb_eq in T2|apply N.eqb_neq in T2; auto].
  destruct (arp_hw_addr_size p =? 6) eqn:H6; cbn [negb]; [apply N.eqb_eq in H6|apply N.eqb_neq in H6; auto].
  destruct (arp_proto_addr_size p =? 4) eqn:H4; cbn [negb]; [apply N.eqb_eq in H4|apply N.eqb_neq in H4; auto].
  rewrite H6 in W1, W3. rewrite H4 in W2, W4.
  destruct (arp_buf_slice_wf _ _ W1) as (_ & L1 & K1). destruct (arp_buf_slice_wf _ _ W2) as (_ & L2 & K2).
  destruct (arp_buf_slice_wf _ _ W3) as (_ & L3 & K3). destruct (arp_buf_slice_wf _ _ W4) as (_ & L4 & K4).
  destruct (arp_wf_buf_facts _ _ W1) as (G1 & _). destruct (arp_wf_buf_facts _ _ W2) as (G2 & _).
  destruct (arp_wf_buf_facts _ _ W3) as (G3 & _). destruct (arp_wf_buf_facts _ _ W4) as (G4 & _).
  rewrite (leb_true _ _ G1), (leb_true _ _ G2), (leb_true _ _ G3), (leb_true _ _ G4).
  repeat split; try assumption.
  apply wf_ae_iff. cbn [ae_operation ae_sender_mac ae_sender_ipv4 ae_target_mac ae_target_ipv4].
  repeat split; assumption.
Qed.
