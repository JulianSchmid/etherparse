(* The decoder models of Roundtrip/ never end in one of their MODEL failure values, for EVERY input.

   The models return `Err EOOB` / `Err EPanic` where the transliterated Rust code would read out of
   bounds (get_unchecked, from_raw_parts), panic on a slice index / unwrap, or (IpHeaders,
   Ipv6Extensions) where a part model returns Panic / OutOfFuel / QBad / QUnderflow / QFuel.  The
   round-trip theorems conclude `Ok` and so exclude these values for ACCEPTED inputs only.  Here: for
   every byte string -- `bytes_ok bs` where a length octet >= 256 would send the model into a branch a
   real u8 cannot reach -- every from_slice / read / from_bytes model returns `Ok _` or a proper error
   (`ELen`, `EContent _`, `EIo`): `proper`.  Hence no equation between two decoder results
   (`X_read bs = eof_of_len (X_from_slice bs)` of Equiv/ReadValues*.v) holds because both sides are a
   model failure.

   The length check of each decoder makes its unchecked reads defined; `read` follows from the
   equalities read = eof_of_len from_slice where they exist; ICMP / IGMP through CtlMsg/Proofs.v (model
   = RFC table, which has no UB); Ipv6Extensions through ExtChain/ (`from_slice_never_panics`, erasure
   to the read program and `ext_readers_good`); IpHeaders by composition, the LimitedReader with ANY
   budget, also larger than the data. *)
From EP Require Import Base.Bytes Roundtrip.Common Roundtrip.CommonProofs Roundtrip.LinkNetLemmas Roundtrip.Framed
  Roundtrip.ReaderInd.
From EP Require Import CtlMsg.Spec CtlMsg.Model CtlMsg.Proofs.
From EP Require Import Roundtrip.Eth Roundtrip.Vlan Roundtrip.Sll Roundtrip.Udp Roundtrip.Frag Roundtrip.Ipv6
  Roundtrip.Tcp Roundtrip.Ipv4 Roundtrip.Auth Roundtrip.RawExt Roundtrip.Macsec Roundtrip.Arp Roundtrip.Exts4
  Roundtrip.Icmp4 Roundtrip.Icmp4Proofs Roundtrip.Icmp6 Roundtrip.Icmp6Proofs
  Roundtrip.Igmp Roundtrip.IgmpProofs Roundtrip.Grec Roundtrip.GrecProofs Roundtrip.Prefix
  Roundtrip.IpHeaders Roundtrip.IpHeadersProofs Roundtrip.Msg8.
From EP Require Roundtrip.ArpProofs.
From EP Require IoFault.Spec IoFault.Model IoFault.Proofs ExtChain.Spec ExtChain.Model ExtChain.DecodeTotal
  ExtChain.ReadModel ExtChain.ReadView ExtChain.ReadProofs ExtChain.ReadErase.
From EP Require Import Equiv.ReadValues Equiv.ReadValuesLink Equiv.ReadValuesNet.
From EP Require Import Roundtrip.Common.
From Coq Require Import ZArith Lia ZifyN ZifyBool.
Local Open Scope N_scope.
Module XM := EP.ExtChain.Model.
Module XR := EP.ExtChain.ReadModel.
Module XV := EP.ExtChain.ReadView.
Module XE := EP.ExtChain.ReadErase.
Module IOM := EP.IoFault.Model.
Module IOS := EP.IoFault.Spec.
Module IOP := EP.IoFault.Proofs.

(* a decoder result that is not a failure value of the MODEL *)
Definition proper {A} (r : res A) : Prop :=
  match r with
  | Ok _ | Err ELen | Err (EContent _) | Err EIo => True
  | Err EOOB | Err EPanic => False
  end.

Lemma proper_eof {A} (r : res A) : proper r -> proper (eof_of_len r).
Proof. destruct r as [a|[]]; auto. Qed.

(* a header of fixed length: the length check makes the header decoder's reads defined *)
Lemma framed_total {T} n (hdr : bytes -> res T) s :
  (forall b, len b = n -> proper (hdr b)) -> proper (framed n hdr s).
Proof.
  intros H. destruct (N.lt_ge_cases (len s) n) as [L|L].
  - rewrite framed_short by exact L. exact I.
  - rewrite framed_eq by exact L. specialize (H (take n s) ltac:(rewrite len_take; lia)).
    destruct (hdr (take n s)); [exact I|exact H].
Qed.

Ltac ltb_all :=
  repeat match goal with
  | H : (_ <? _) = true |- _ => apply N.ltb_lt in H
  | H : (_ <? _) = false |- _ => apply N.ltb_ge in H
  | H : (_ <=? _) = true |- _ => apply N.leb_le in H
  | H : (_ <=? _) = false |- _ => apply N.leb_gt in H
  | H : (_ =? _) = true |- _ => apply N.eqb_eq in H
  | H : (_ =? _) = false |- _ => apply N.eqb_neq in H
  end.

Lemma slice_range_some (s : bytes) a b : a <= b -> b <= len s ->
  exists o, slice_range s a b = Some o /\ len o = b - a.
Proof.
  intros H1 H2. unfold slice_range. rewrite (leb_true _ _ H1), (leb_true _ _ H2). cbn [andb].
  eexists. split; [reflexivity|]. rewrite len_take, len_drop. lia.
Qed.
Lemma slice_from_some (s : bytes) a : a <= len s -> slice_from s a = Some (drop a s).
Proof. intros H. unfold slice_from. rewrite (leb_true _ _ H). reflexivity. Qed.
Lemma slice_range_ok (s : bytes) a b o : bytes_ok s -> slice_range s a b = Some o -> bytes_ok o.
Proof.
  unfold slice_range. intros Hb. destruct ((a <=? b) && (b <=? len s)); [|discriminate].
  intros H. injection H as <-. apply bytes_ok_take, bytes_ok_drop, Hb.
Qed.

(* a list with at least n elements, written out *)
Tactic Notation "explode" ident(s) integer(n) :=
  do n (destruct s as [|? s]; [exfalso; unfold len in *; cbn [length] in *; lia|]).
(* bs = (k explicit elements) ++ t *)
Ltac split_pre bs k E :=
  let pre := fresh "pre" in let t := fresh "t" in let Hpre := fresh "Hpre" in
  destruct (split_n k bs E) as (pre & t & -> & Hpre);
  repeat (destruct pre as [|? pre]; [discriminate Hpre|]); destruct pre; [|discriminate Hpre]; clear Hpre.
Ltac rd_all s :=
  repeat match goal with
  | |- context [rd s ?i] => let v := fresh "v" in destruct (rd_lt_Some s i ltac:(lia)) as [v ->]
  end.

Lemma eth_from_slice_total bs : proper (eth_from_slice bs).
Proof.
  apply (framed_total 14 eth_to_header). apply (all_lists_len 14). cbn [all_lists]. intros. exact I.
Qed.
Lemma eth_read_total bs : proper (eth_read bs).
Proof. rewrite eth_read_eq_from_slice. apply proper_eof, eth_from_slice_total. Qed.
Lemma eth_from_bytes_total b : len b = 14 -> proper (eth_from_bytes b).
Proof. revert b. apply (all_lists_len 14). cbn [all_lists]. intros. exact I. Qed.

Lemma vl_from_slice_total bs : proper (vl_from_slice bs).
Proof.
  apply (framed_total 4 vl_to_header). apply (all_lists_len 4). cbn [all_lists]. intros. exact I.
Qed.
Lemma vl_read_total bs : proper (vl_read bs).
Proof. rewrite vl_read_eq_from_slice. apply proper_eof, vl_from_slice_total. Qed.
Lemma vl_from_bytes_total b : len b = 4 -> proper (vl_from_bytes b).
Proof. revert b. apply (all_lists_len 4). cbn [all_lists]. intros. exact I. Qed.

Lemma sll_from_slice_total bs : proper (sll_from_slice bs).
Proof.
  unfold sll_from_slice, sll_slice_from_slice, slice_from.
  destruct (len bs <? 16) eqn:E; [exact I|]. apply N.ltb_ge in E.
  replace (16 <=? len bs) with true by (symmetry; apply N.leb_le; lia).
  split_pre bs 16%nat E.
  unfold sll_rd16 at 1 2 3.
  match goal with |- context [rd ?l 0] => change (rd l 0) with (Some n); change (rd l 1) with (Some n0);
     change (rd l 2) with (Some n1); change (rd l 3) with (Some n2);
     change (rd l 14) with (Some n13); change (rd l 15) with (Some n14) end.
  cbv iota beta.
  destruct (sll_packet_type_try_from (be16 n n0)) as [pt|] eqn:PT; [|exact I].
  destruct (sll_protocol_try_from (be16 n1 n2) (be16 n13 n14)) as [p|] eqn:PR; [|exact I].
  match goal with |- context [take 16 ?l] =>
    change (take 16 l) with [n; n0; n1; n2; n3; n4; n5; n6; n7; n8; n9; n10; n11; n12; n13; n14] end.
  unfold sll_to_header, sll_rd16.
  match goal with |- context [rd ?l 0] => change (rd l 0) with (Some n); change (rd l 1) with (Some n0);
     change (rd l 2) with (Some n1); change (rd l 3) with (Some n2);
     change (rd l 4) with (Some n3); change (rd l 5) with (Some n4);
     change (rd l 14) with (Some n13); change (rd l 15) with (Some n14) end.
  cbv iota beta. 
  match goal with |- context [slice_range ?l 6 14] =>
    change (slice_range l 6 14) with (Some [n5; n6; n7; n8; n9; n10; n11; n12]) end.
  cbv iota beta. rewrite PT, PR. exact I.
Qed.
Lemma sll_read_total bs : proper (Sll.sll_read bs).
Proof. rewrite sll_read_eq_from_slice. apply proper_eof, sll_from_slice_total. Qed.
Lemma sll_from_bytes_total b : len b = 16 -> proper (sll_from_bytes b).
Proof.
  revert b. apply (all_lists_len 16). cbn [all_lists]. intros. unfold sll_from_bytes.
  destruct (sll_packet_type_try_from _); [|exact I]. destruct (sll_protocol_try_from _ _); exact I.
Qed.

Lemma udp_from_slice_total bs : proper (udp_from_slice bs).
Proof.
  apply (framed_total 8 udp_to_header). apply (all_lists_len 8). cbn [all_lists]. intros. exact I.
Qed.
Lemma udp_read_total bs : proper (udp_read bs).
Proof. rewrite udp_read_eq_from_slice. apply proper_eof, udp_from_slice_total. Qed.
Lemma udp_from_bytes_total b : len b = 8 -> proper (udp_from_bytes b).
Proof. revert b. apply (all_lists_len 8). cbn [all_lists]. intros. exact I. Qed.

Lemma frag_from_slice_total bs : proper (frag_from_slice bs).
Proof.
  unfold frag_from_slice, frag_slice_from_slice, slice_from.
  destruct (len bs <? 8) eqn:E; [exact I|]. apply N.ltb_ge in E.
  replace (8 <=? len bs) with true by (symmetry; apply N.leb_le; lia).
  split_pre bs 8%nat E. exact I.
Qed.
Lemma frag_read_total bs : proper (frag_read bs).
Proof. rewrite frag_read_eq_from_slice. apply proper_eof, frag_from_slice_total. Qed.

Lemma ip6_from_slice_total bs : proper (ip6_from_slice bs).
Proof.
  unfold ip6_from_slice, ip6_slice_from_slice, slice_from.
  destruct (len bs <? 40) eqn:E; [exact I|]. apply N.ltb_ge in E.
  replace (40 <=? len bs) with true by (symmetry; apply N.leb_le; lia).
  split_pre bs 40%nat E.
  change (rd _ 0) with (Some n). cbv iota beta zeta.
  destruct (negb (shr n 4 =? 6)); exact I.
Qed.
Lemma ip6_read_total bs : proper (ip6_read bs).
Proof.
  unfold ip6_read. unfold read_exact at 1.
  destruct (len bs <? 1) eqn:E; [exact I|]. ltb_all.
  split_pre bs 1%nat E. change (take 1 ([n] ++ t)) with [n]. change (drop 1 ([n] ++ t)) with t. cbv iota beta zeta.
  destruct (negb (shr n 4 =? 6)); [exact I|].
  unfold ip6_read_without_version, read_exact.
  destruct (len t <? 39) eqn:E2; [exact I|]. ltb_all.
  split_pre t 39%nat E2. exact I.
Qed.

Lemma tcp_to_header_ok s b12 : 20 <= len s -> rd s 12 = Some b12 ->
  20 <= shr (band b12 240) 4 * 4 -> shr (band b12 240) 4 * 4 <= len s -> shr (band b12 240) 4 * 4 <= 60 ->
  exists h, Tcp.to_header s = Ok h.
Proof.
  intros L R H1 H2 H3. explode s 20. injection R as ->.
  unfold Tcp.to_header.
  destruct (slice_range_some _ 20 _ H1 H2) as (o & -> & Lo).
  replace (40 <? len o) with false by (symmetry; apply N.ltb_ge; lia).
  eexists. reflexivity.
Qed.

Lemma tcp_from_slice_total bs : bytes_ok bs -> proper (Tcp.from_slice bs).
Proof.
  intros Hb. unfold Tcp.from_slice, Tcp.slice_from_slice.
  destruct (len bs <? 20) eqn:E; [exact I|]. ltb_all.
  destruct (rd_lt_Some bs 12 ltac:(lia)) as [b12 R]. rewrite R.
  pose proof (rd_ok _ _ _ Hb R) as Hb12.
  destruct (tcp_b12_facts b12 Hb12) as (F1 & F2 & F3). cbv zeta.
  destruct (shr (band b12 240) 2 <? 20) eqn:E2; [exact I|].
  destruct (len bs <? shr (band b12 240) 2) eqn:E3; [exact I|].
  symmetry in F1. ltb_all. destruct (F3 F1) as (G1 & G2 & G3 & G4).
  assert (LH : len (take (shr (band b12 240) 2) bs) = shr (band b12 240) 2) by (rewrite len_take; lia).
  destruct (tcp_to_header_ok (take (shr (band b12 240) 2) bs) b12) as [h ->]; try lia.
  { rewrite rd_take_lt by lia. exact R. }
  rewrite LH, slice_from_some by lia. exact I.
Qed.

Lemma tcp_read_total bs : bytes_ok bs -> proper (Tcp.read bs).
Proof. intros Hb. rewrite (tcp_read_eq_from_slice bs Hb). apply proper_eof, tcp_from_slice_total, Hb. Qed.

Lemma ip4_to_header_ok s : 20 <= len s -> len s <= 60 -> exists h, ip4_to_header s = Ok h /\ ip4_header_len h = len s.
Proof.
  intros L H. explode s 20. unfold ip4_to_header.
  assert (LS : len s <= 40) by (unfold len in *; cbn [length] in *; lia).
  replace (40 <? len s) with false by (symmetry; apply N.ltb_ge; lia).
  eexists. split; [reflexivity|]. unfold ip4_header_len. cbn [i4_options i4o_len]. unfold as_u8.
  rewrite N.mod_small by lia. unfold len in *; cbn [length] in *; lia.
Qed.

Lemma ip4_from_slice_total bs : bytes_ok bs -> proper (ip4_from_slice bs).
Proof.
  intros Hb. unfold ip4_from_slice, ip4_slice_from_slice.
  destruct (len bs <? 20) eqn:E; [exact I|]. ltb_all.
  destruct (rd_lt_Some bs 0 ltac:(lia)) as [b0 R]. rewrite R.
  pose proof (rd_ok _ _ _ Hb R) as Hb0. cbv zeta.
  destruct (negb (shr b0 4 =? 4)); [exact I|].
  destruct (band b0 15 <? 5) eqn:E2; [exact I|].
  destruct (len bs <? band b0 15 * 4) eqn:E3; [exact I|]. ltb_all.
  pose proof (band15_lt b0) as B.
  destruct (ip4_to_header_ok (take (band b0 15 * 4) bs)) as (h & -> & LH); try (rewrite len_take; lia).
  rewrite LH, len_take, slice_from_some by lia. exact I.
Qed.

Lemma ip4_read_short bs : len bs < 20 -> proper (ip4_read bs).
Proof.
  intros L. unfold ip4_read. unfold read_exact at 1.
  destruct (len bs <? 1) eqn:E; [exact I|]. ltb_all.
  split_pre bs 1%nat E. change (take 1 ([n] ++ t)) with [n]. change (drop 1 ([n] ++ t)) with t. cbv iota beta zeta.
  destruct (negb (shr n 4 =? 4)); [exact I|].
  unfold read_exact. rewrite len_app in L. change (len [n]) with 1 in L.
  replace (len t <? 19) with true by (symmetry; apply N.ltb_lt; lia). exact I.
Qed.
Lemma ip4_read_total bs : bytes_ok bs -> proper (ip4_read bs).
Proof.
  intros Hb. destruct (N.lt_ge_cases (len bs) 20) as [L|L]; [apply ip4_read_short, L|].
  rewrite (ip4_read_eq_from_slice bs Hb L). apply proper_eof, ip4_from_slice_total, Hb.
Qed.

Lemma ah_to_header_ok s : 12 <= len s -> len s <= 1028 -> (len s - 12) mod 4 = 0 -> exists h, ah_to_header s = Ok h.
Proof.
  intros L H M. explode s 12. unfold ah_to_header.
  rewrite slice_from_some by lia.
  match goal with |- context [drop 12 ?l] => change (drop 12 l) with s end.
  assert (LS : len s = len (n :: n0 :: n1 :: n2 :: n3 :: n4 :: n5 :: n6 :: n7 :: n8 :: n9 :: n10 :: s) - 12)
    by (unfold len; cbn [length]; lia).
  unfold ah_new, AH_MAX_ICV_LEN.
  replace (1016 <? len s) with false by (symmetry; apply N.ltb_ge; lia).
  rewrite LS, M. cbn [N.eqb negb]. change (0 =? 0) with true. cbn [negb]. eexists. reflexivity.
Qed.

Lemma ah_from_slice_total bs : bytes_ok bs -> proper (ah_from_slice bs).
Proof.
  intros Hb. unfold ah_from_slice, ah_slice_from_slice.
  destruct (len bs <? 12) eqn:E; [exact I|]. ltb_all.
  destruct (rd_lt_Some bs 1 ltac:(lia)) as [pl R]. rewrite R.
  pose proof (rd_ok _ _ _ Hb R) as Hpl. cbv zeta.
  destruct (pl <? 1) eqn:E1; [exact I|].
  destruct (len bs <? (pl + 2) * 4) eqn:E2; [exact I|]. ltb_all.
  assert (LH : len (take ((pl + 2) * 4) bs) = (pl + 2) * 4) by (rewrite len_take; lia).
  rewrite LH, slice_from_some by lia.
  assert (M : (len (take ((pl + 2) * 4) bs) - 12) mod 4 = 0).
  { rewrite LH. replace ((pl + 2) * 4 - 12) with ((pl - 1) * 4) by lia. apply N.mod_mul. discriminate. }
  destruct (ah_to_header_ok (take ((pl + 2) * 4) bs) ltac:(lia) ltac:(lia) M) as [h ->].
  exact I.
Qed.

Lemma ah_read_total bs : bytes_ok bs -> proper (ah_read bs).
Proof. intros Hb. rewrite (ah_read_eq_from_slice bs Hb). apply proper_eof, ah_from_slice_total, Hb. Qed.

Lemma x4_from_slice_total start bs : bytes_ok bs -> proper (x4_from_slice start bs).
Proof.
  intros Hb. pose proof (ah_from_slice_total bs Hb) as P.
  unfold x4_from_slice, x4_slice_from_slice. unfold ah_from_slice in P.
  destruct (X4_AUTH =? start); [|exact I].
  destruct (ah_slice_from_slice bs) as [hs|e] eqn:S; [|destruct e; try exact I; contradiction].
  destruct (slice_from bs (len hs)) as [rest|]; [|contradiction].
  destruct (ah_to_header hs) as [h|e] eqn:H.
  - rewrite (ah_to_header_nh _ _ H). cbv iota beta. rewrite H. exact I.
  - destruct (rd hs 0) eqn:R0.
    + cbv iota beta. rewrite H. exact P.
    + rewrite (ah_to_header_nil_rd _ R0) in H. injection H as <-. contradiction.
Qed.

Lemma x4_read_total start bs : bytes_ok bs -> proper (x4_read bs start).
Proof. intros Hb. rewrite (x4_read_eq_from_slice start bs Hb). apply proper_eof, x4_from_slice_total, Hb. Qed.

Lemma rx_to_header_ok s : 8 <= len s -> len s <= 2048 -> len s mod 8 = 0 -> exists h, rx_to_header s = Ok h.
Proof.
  intros L H M. unfold rx_to_header.
  destruct (rd_lt_Some s 0 ltac:(lia)) as [b0 ->].
  replace (len s <? 2) with false by (symmetry; apply N.ltb_ge; lia).
  unfold rx_new_raw, RX_MAX_PAYLOAD_LEN. rewrite len_drop.
  replace (len s - 2 <? 6) with false by (symmetry; apply N.ltb_ge; lia).
  replace (2046 <? len s - 2) with false by (symmetry; apply N.ltb_ge; lia).
  replace (len s - 2 + 2) with (len s) by lia. rewrite M. change (0 =? 0) with true. cbn [negb].
  eexists. reflexivity.
Qed.

Lemma rx_from_slice_total bs : bytes_ok bs -> proper (rx_from_slice bs).
Proof.
  intros Hb. unfold rx_from_slice, rx_slice_from_slice.
  destruct (len bs <? 8) eqn:E; [exact I|]. ltb_all.
  destruct (rd_lt_Some bs 1 ltac:(lia)) as [b1 R]. rewrite R.
  pose proof (rd_ok _ _ _ Hb R) as Hb1. cbv zeta.
  destruct (len bs <? (b1 + 1) * 8) eqn:E2; [exact I|]. ltb_all.
  assert (LH : len (take ((b1 + 1) * 8) bs) = (b1 + 1) * 8) by (rewrite len_take; lia).
  rewrite LH, slice_from_some by lia.
  assert (M : len (take ((b1 + 1) * 8) bs) mod 8 = 0).
  { rewrite LH. apply N.mod_mul. discriminate. }
  destruct (rx_to_header_ok (take ((b1 + 1) * 8) bs) ltac:(lia) ltac:(lia) M) as [h ->].
  exact I.
Qed.

Lemma rx_read_total bs : bytes_ok bs -> proper (rx_read bs).
Proof. intros Hb. rewrite (rx_read_eq_from_slice bs Hb). apply proper_eof, rx_from_slice_total, Hb. Qed.

Lemma mac_to_header_ok s tci : rd s 0 = Some tci -> mac_required_len tci <= len s -> exists h, mac_to_header s = Ok h.
Proof.
  intros R L. unfold mac_required_len in L. rewrite mac_unmod_bits in L.
  unfold mac_to_header, mac_sl_ptype, mac_sl_sci, mac_rd16. rewrite R.
  destruct (nz (band tci 8)), (nz (band tci 4)), (nz (band tci 32)); cbn [negb andb] in L; cbv iota beta;
    rd_all s; eexists; reflexivity.
Qed.

Lemma mac_from_slice_total bs : proper (mac_from_slice bs).
Proof.
  unfold mac_from_slice, mac_slice_from_slice.
  destruct (len bs <? 6) eqn:E; [exact I|]. ltb_all.
  destruct (rd_lt_Some bs 0 ltac:(lia)) as [tci R0]. destruct (rd_lt_Some bs 1 ltac:(lia)) as [b1 R1].
  rewrite R0, R1.
  destruct (nz (band tci 128)); [exact I|]. cbv zeta.
  pose proof (mac_required_len_bounds tci) as RB.
  destruct (band tci 12 =? 0) eqn:U; [destruct (band b1 63 =? 1); [exact I|]|];
  (destruct (len bs <? mac_required_len tci) eqn:E2; [exact I|]; ltb_all;
   destruct (mac_to_header_ok (take (mac_required_len tci) bs) tci) as [h ->];
     [rewrite rd_take_lt by lia; exact R0 | rewrite len_take; lia | exact I]).
Qed.

Lemma mac_read_total bs : proper (mac_read bs).
Proof.
  rewrite mac_read_eq_from_slice. apply proper_eof.
  pose proof (mac_from_slice_total bs) as P. destruct (mac_from_slice bs) as [h|e]; [exact I|exact P].
Qed.

Lemma arp_to_packet_ok s hs ps : rd s 4 = Some hs -> rd s 5 = Some ps -> hs < 256 -> ps < 256 ->
  len s = 8 + hs * 2 + ps * 2 -> exists p, arp_to_packet s = Ok p.
Proof.
  intros R4 R5 H1 H2 L. explode s 8. injection R4 as ->. injection R5 as ->.
  unfold arp_to_packet.
  destruct (slice_range_some (n :: n0 :: n1 :: n2 :: hs :: ps :: n5 :: n6 :: s) 8 (8 + hs) ltac:(lia) ltac:(lia))
    as (a & -> & La).
  destruct (slice_range_some (n :: n0 :: n1 :: n2 :: hs :: ps :: n5 :: n6 :: s) (8 + hs) (8 + hs + ps) ltac:(lia) ltac:(lia))
    as (b & -> & Lb).
  destruct (slice_range_some (n :: n0 :: n1 :: n2 :: hs :: ps :: n5 :: n6 :: s) (8 + hs + ps) (8 + hs + ps + hs) ltac:(lia) ltac:(lia))
    as (c & -> & Lc).
  destruct (slice_range_some (n :: n0 :: n1 :: n2 :: hs :: ps :: n5 :: n6 :: s) (8 + hs * 2 + ps) (8 + hs * 2 + ps + ps) ltac:(lia) ltac:(lia))
    as (d & -> & Ld).
  unfold arp_new_unchecked.
  replace ((255 <? len a) || (255 <? len b) || (255 <? len c) || (255 <? len d)) with false.
  2:{ symmetry. repeat (apply orb_false_intro); apply N.ltb_ge; lia. }
  eexists. reflexivity.
Qed.

Lemma arp_from_slice_total bs : bytes_ok bs -> proper (arp_from_slice bs).
Proof.
  intros Hb. unfold arp_from_slice, arp_slice_from_slice.
  destruct (len bs <? 8) eqn:E; [exact I|]. ltb_all.
  destruct (rd_lt_Some bs 4 ltac:(lia)) as [hs R4]. destruct (rd_lt_Some bs 5 ltac:(lia)) as [ps R5].
  rewrite R4, R5. cbv zeta.
  pose proof (rd_ok _ _ _ Hb R4) as H4. pose proof (rd_ok _ _ _ Hb R5) as H5.
  destruct (len bs <? 8 + hs * 2 + ps * 2) eqn:E2; [exact I|]. ltb_all.
  destruct (arp_to_packet_ok (take (8 + hs * 2 + ps * 2) bs) hs ps) as [p ->]; try assumption.
  - rewrite rd_take_lt by lia. exact R4.
  - rewrite rd_take_lt by lia. exact R5.
  - rewrite len_take. lia.
  - exact I.
Qed.

Lemma arp_read_total bs : bytes_ok bs -> proper (arp_read bs).
Proof.
  intros Hb. rewrite (arp_read_eq_from_slice bs Hb). apply proper_eof.
  pose proof (arp_from_slice_total bs Hb) as P. destruct (arp_from_slice bs) as [h|e]; [exact I|exact P].
Qed.

(* try_eth_ipv4 on a well-formed packet, hence on whatever from_slice returned *)
Lemma arp_try_eth_ipv4_wf p : wf_arp p = true -> proper (arp_try_eth_ipv4 p).
Proof.
  intros W. destruct (ArpProofs.arp_wf_facts p W) as (_ & _ & _ & _ & _ & B1 & B2 & B3 & B4).
  apply ArpProofs.arp_wf_buf_facts in B1, B2, B3, B4.
  unfold arp_try_eth_ipv4, arp_assume_init.
  destruct (negb (arp_hw_addr_type p =? 1)); [exact I|].
  destruct (negb (arp_proto_addr_type p =? 2048)); [exact I|].
  destruct (arp_hw_addr_size p =? 6) eqn:E6; [|exact I].
  destruct (arp_proto_addr_size p =? 4) eqn:E4; [|exact I]. ltb_all. cbn [negb].
  rewrite (leb_true 6 (len (arp_sender_hw_addr_buf p))) by lia.
  rewrite (leb_true 4 (len (arp_sender_protocol_addr_buf p))) by lia.
  rewrite (leb_true 6 (len (arp_target_hw_addr_buf p))) by lia.
  rewrite (leb_true 4 (len (arp_target_protocol_addr_buf p))) by lia. exact I.
Qed.
Lemma arp_try_eth_ipv4_total bs p : bytes_ok bs -> arp_from_slice bs = Ok p -> proper (arp_try_eth_ipv4 p).
Proof.
  intros Hb H. destruct (ArpProofs.arp_enc_dec bs p Hb H) as (W & _). apply arp_try_eth_ipv4_wf, W.
Qed.

Lemma icmp4_from_slice_total bs : proper (icmp4_from_slice bs).
Proof.
  destruct (len bs <? 8) eqn:E8.
  { unfold icmp4_from_slice, Icmpv4Slice.from_slice, Icmpv4Slice.MIN_LEN. rewrite E8. exact I. }
  destruct (len_ge_cons8 bs E8) as (t & c & k0 & k1 & b4 & b5 & b6 & b7 & rest & ->).
  destruct (icmp4_from_slice_cases t c k0 k1 b4 b5 b6 b7 rest)
    as [(T & -> & [(o0 & o1 & o2 & o3 & r0 & r1 & r2 & r3 & t0 & t1 & t2 & t3 & ->)|E])|LF].
  - rewrite (icmp4_from_slice_20 t k0 k1 b4 b5 b6 b7 o0 o1 o2 o3 r0 r1 r2 r3 t0 t1 t2 t3 T). exact I.
  - rewrite E. exact I.
  - rewrite (icmp4_from_slice_8 _ _ _ _ _ _ _ _ _ LF). exact I.
Qed.

Lemma icmp4_read_total bs : proper (icmp4_read bs).
Proof.
  destruct (icmp4_ts_trailing bs) eqn:T.
  - unfold icmp4_ts_trailing in T. apply andb_true_iff in T. destruct T as [T L]. ltb_all.
    rewrite (icmp4_read_eq_from_slice_ts bs T) by lia.
    pose proof (icmp4_from_slice_total (take 20 bs)) as P.
    destruct (icmp4_from_slice (take 20 bs)) as [[h r]|e]; [exact I|exact P].
  - rewrite (icmp4_read_eq_from_slice bs T). apply proper_eof, icmp4_from_slice_total.
Qed.

Lemma icmp6_from_slice_total bs : proper (icmp6_from_slice bs).
Proof.
  destruct (len bs <? 8) eqn:E8.
  { unfold icmp6_from_slice, Icmpv6Slice.from_slice, Icmpv6Slice.MIN_LEN. rewrite E8. exact I. }
  destruct (4294967295 <? len bs) eqn:EM; ltb_all.
  { rewrite (icmp6_from_slice_too_long bs EM). exact I. }
  assert (E8' : (len bs <? 8) = false) by (apply N.ltb_ge; lia).
  destruct (len_ge_cons8 bs E8') as (t & c & k0 & k1 & b4 & b5 & b6 & b7 & rest & ->).
  rewrite len8 in EM. rewrite (icmp6_from_slice_8 _ _ _ _ _ _ _ _ _ EM). exact I.
Qed.

Lemma icmp6_read_total bs : proper (icmp6_read bs).
Proof.
  rewrite icmp6_read_eq_from_slice_prefix. apply proper_eof.
  pose proof (icmp6_from_slice_total (take 8 bs)) as P.
  destruct (icmp6_from_slice (take 8 bs)) as [[h r]|e]; [exact I|exact P].
Qed.

(* IgmpHeader, ReportGroupRecordV3Header: CtlMsg/Proofs.v says model = RFC table, which has no UB *)
Lemma igmp_from_slice_total bs : proper (igmp_from_slice bs).
Proof.
  unfold igmp_from_slice. pose proof (igmp_eq bs) as E. unfold Igmp.view in E.
  destruct (Igmp.from_slice bs) as [[[ty ck] r]|e|n]; try exact I.
  exfalso. unfold igmp in E. cbv zeta in E.
  destruct (len bs <? 8); [discriminate|].
  destruct (byte_at bs 0 =? 17).
  - destruct (len bs =? 8); [discriminate|]. destruct (12 <=? len bs); discriminate.
  - destruct (lookup1 (byte_at bs 0) igmp_table); discriminate.
Qed.

Lemma grec_from_slice_total bs : proper (grec_from_slice bs).
Proof.
  unfold grec_from_slice. rewrite group_record_eq. unfold group_record.
  destruct (len bs <? 8); exact I.
Qed.

Lemma pi_split_some (s : bytes) n : n <= len s -> pi_split s n = Some (take n s, drop n s).
Proof. intros H. unfold pi_split. rewrite (leb_true _ _ H). reflexivity. Qed.

Lemma pi_from_bytes_total b : len b = 32 -> proper (pi_from_bytes b).
Proof.
  revert b. apply (all_lists_len 32). cbn [all_lists]. intros. unfold pi_from_bytes.
  rewrite !pi_split_some by (vm_compute; discriminate).
  destruct (negb _); exact I.
Qed.

Lemma pi_from_slice_total s : proper (pi_from_slice s).
Proof.
  unfold pi_from_slice. destruct (len s =? 32) eqn:E; [|exact I]. ltb_all. apply pi_from_bytes_total, E.
Qed.

Lemma v4_tail_total header rest : bytes_ok rest -> proper (v4_tail header rest).
Proof.
  intros Hb. unfold v4_tail. pose proof (x4_from_slice_total (i4_protocol header) rest Hb) as P.
  destruct (x4_from_slice (i4_protocol header) rest) as [[[e n] r]|e]; [exact I|exact P].
Qed.

Lemma v6_tail_total header hp ls : bytes_ok hp -> proper (v6_tail header hp ls).
Proof.
  intros Hb. unfold v6_tail. pose proof (ExtChain.DecodeTotal.from_slice_never_panics (i6_next_header header) hp Hb) as P.
  destruct (XM.from_slice (i6_next_header header) hp) as [[[e n] r]|x| |]; try contradiction; cbn [of_x6].
  - exact I.
  - destruct x; exact I.
Qed.

Lemma iph_from_ipv4_slice_total bs : bytes_ok bs -> proper (iph_from_ipv4_slice bs).
Proof.
  intros Hb. unfold iph_from_ipv4_slice. pose proof (ip4_from_slice_total bs Hb) as P.
  destruct (ip4_from_slice bs) as [[header hr]|e] eqn:F; [|exact P].
  destruct (ip4_from_slice_inv _ _ _ F) as (b0 & _ & _ & _ & _ & _ & _ & _ & ->).
  destruct (ip4_header_len header <=? i4_total_len header) eqn:E1; [|exact I].
  destruct (len (drop (band b0 15 * 4) bs) <? i4_total_len header - ip4_header_len header) eqn:E2; [exact I|]. ltb_all.
  destruct (slice_range_some (drop (band b0 15 * 4) bs) 0 (i4_total_len header - ip4_header_len header) ltac:(lia) E2)
    as (o & SR & _). rewrite SR.
  apply v4_tail_total. eapply slice_range_ok; [|exact SR]. apply bytes_ok_drop, Hb.
Qed.

Lemma ip6_from_slice_rest s h rest : ip6_from_slice s = Ok (h, rest) -> rest = drop 40 s /\ 40 <= len s.
Proof.
  unfold ip6_from_slice, ip6_slice_from_slice.
  destruct (len s <? 40) eqn:L; [discriminate|]. ltb_all.
  destruct (rd s 0); [|discriminate]. destruct (negb _); [discriminate|].
  destruct (ip6_to_header (take 40 s)); [|discriminate].
  unfold slice_from. rewrite (leb_true _ _ L). intros H. apply Ok_inj in H. injection H as _ <-. auto.
Qed.

Lemma iph_from_ipv6_slice_total bs : bytes_ok bs -> proper (iph_from_ipv6_slice bs).
Proof.
  intros Hb. unfold iph_from_ipv6_slice. pose proof (ip6_from_slice_total bs) as P.
  destruct (ip6_from_slice bs) as [[header hr]|e] eqn:F; [|exact P].
  destruct (ip6_from_slice_rest _ _ _ F) as [-> L].
  destruct ((0 =? i6_payload_length header) && (40 <? len bs)).
  - apply v6_tail_total, bytes_ok_drop, Hb.
  - destruct (len (drop 40 bs) <? i6_payload_length header) eqn:E2; [exact I|]. ltb_all.
    destruct (slice_range_some (drop 40 bs) 0 (i6_payload_length header) ltac:(lia) E2) as (o & SR & _). rewrite SR.
    apply v6_tail_total. eapply slice_range_ok; [|exact SR]. apply bytes_ok_drop, Hb.
Qed.

Lemma iph_from_slice_total bs : bytes_ok bs -> proper (iph_from_slice bs).
Proof.
  intros Hb. destruct (len bs =? 0) eqn:E0.
  { unfold iph_from_slice. rewrite E0. exact I. }
  ltb_all. destruct (rd_lt_Some bs 0 ltac:(lia)) as [b0 R].
  destruct (N.eq_dec (shr b0 4) 4) as [V4|V4].
  { rewrite (iph_dispatch_v4 bs b0 R V4). apply iph_from_ipv4_slice_total, Hb. }
  destruct (N.eq_dec (shr b0 4) 6) as [V6|V6].
  { rewrite (iph_dispatch_v6 bs b0 R V6). apply iph_from_ipv6_slice_total, Hb. }
  rewrite (iph_dispatch_other bs b0 R V4 V6). exact I.
Qed.

(* answers IpHeaders::read maps to a proper error (of_q): no impossible index, no usize underflow, no
   fuel exhaustion, and of the content errors only the two the extension readers can raise *)
Definition qreg {A} (q : IOM.qres A) : Prop :=
  match q with
  | IOM.QOk _ | IOM.QIo _ | IOM.QLen _ | IOM.QContent IOM.CHopNotAtStart | IOM.QContent IOM.CAuthZeroLen => True
  | _ => False
  end.

Lemma of_q_proper {A} (r : IOM.qres A * IOM.rstate) : qreg (fst r) -> proper (of_q r).
Proof. destruct r as [[a|k|e|c| | |] st]; cbn [fst of_q qreg]; try tauto. destruct c; tauto. Qed.

(* reader state invariant: chunk >= 1, a LimitedReader has not read beyond its budget, data are bytes *)
Definition st_ok (st : IOM.rstate) : Prop :=
  1 <= IOS.src_chunk (IOM.rs_src st) /\
  match IOM.rs_lim st with Some r => IOM.lr_read r <= IOM.lr_max r | None => True end /\
  bytes_ok (IOS.src_data (IOM.rs_src st)).

Lemma rd_exact_cases st n : st_ok st ->
  match XR.rd_exact st n with
  | (IOM.QOk bs, st') => len bs = n /\ bytes_ok bs /\ st_ok st' /\ (IOM.rs_lim st <> None -> IOM.rs_lim st' <> None)
  | (IOM.QIo _, _) | (IOM.QLen _, _) => True
  | _ => False
  end.
Proof.
  destruct st as [s [r|]]; intros (Hc & Hr & Hb); cbn [IOM.rs_src IOM.rs_lim] in *; unfold XR.rd_exact; cbn [IOM.rs_src IOM.rs_lim].
  - destruct (N.lt_ge_cases (IOM.lr_max r - IOM.lr_read r) n) as [L|L].
    + rewrite IOP.lr_read_exact_len by assumption. exact I.
    + rewrite IOP.lr_read_exact_within by assumption.
      destruct (n <=? len (IOS.src_data s)) eqn:E; [|exact I]. ltb_all.
      split; [rewrite len_take; lia|]. split; [apply bytes_ok_take, Hb|].
      split; [|cbn; discriminate]. split; cbn; [exact Hc|]. split; [lia|apply bytes_ok_drop, Hb].
  - destruct (N.le_gt_cases n (len (IOS.src_data s))) as [L|L].
    + rewrite IOP.io_read_exact_ok by assumption. split; [rewrite len_take; lia|]. split; [apply bytes_ok_take, Hb|].
      split; [|auto]. split; cbn; [exact Hc|]. split; [exact I|apply bytes_ok_drop, Hb].
    + rewrite IOP.io_read_exact_fail by assumption. exact I.
Qed.

Lemma start_layer_cases lim layer st : st_ok st -> (lim = true -> IOM.rs_lim st <> None) ->
  exists st', XR.start_layer lim layer st = (IOM.QOk tt, st') /\ st_ok st' /\
              (IOM.rs_lim st <> None -> IOM.rs_lim st' <> None).
Proof.
  intros (Hc & Hr & Hb) HL. unfold XR.start_layer. destruct lim.
  - destruct (IOM.rs_lim st) as [r|] eqn:E; [|exfalso; apply (HL eq_refl); reflexivity].
    unfold IOM.lr_start_layer, IOM.checked_sub. rewrite (leb_true _ _ Hr).
    eexists. split; [reflexivity|]. split; [split; cbn; [exact Hc|split; [lia|exact Hb]]|]. cbn. discriminate.
  - exists st. split; [reflexivity|]. split; [repeat split; assumption|auto].
Qed.

(* IpAuthHeader::read_limited of Roundtrip/IpHeaders.v *)
Lemma ah_read_limited_reg st : st_ok st -> IOM.rs_lim st <> None -> qreg (fst (ah_read_limited st)).
Proof.
  intros Hs HL. unfold ah_read_limited.
  destruct (start_layer_cases true IOM.L_AUTH st Hs (fun _ => HL)) as (st1 & -> & Hs1 & _). cbn [XR.qbind].
  pose proof (rd_exact_cases st1 12 Hs1) as C.
  destruct (XR.rd_exact st1 12) as [[start|k|e|c| | |] st2]; try contradiction; try exact I. cbn [XR.qbind].
  destruct C as (L & Hb & Hs2 & _).
  destruct start as [|b0 [|b1 [|b2 [|b3 [|b4 [|b5 [|b6 [|b7 [|b8 [|b9 [|b10 [|b11 [|x t]]]]]]]]]]]]];
    try (exfalso; unfold len in L; cbn [length] in L; lia).
  destruct (b1 <? 1) eqn:Z; [exact I|]. ltb_all.
  assert (H1 : b1 < 256).
  { apply bytes_ok_cons in Hb. destruct Hb as [_ Hb]. apply bytes_ok_cons in Hb. destruct Hb as [Hb _]. exact Hb. }
  unfold AH_MAX_ICV_LEN. replace (1016 <? (b1 - 1) * 4) with false by (symmetry; apply N.ltb_ge; lia).
  pose proof (rd_exact_cases st2 ((b1 - 1) * 4) Hs2) as C2.
  destruct (XR.rd_exact st2 ((b1 - 1) * 4)) as [[icv|k|e|c| | |] st3]; try contradiction; exact I.
Qed.

Lemma x4_read_limited_reg st start : st_ok st -> IOM.rs_lim st <> None -> qreg (fst (x4_read_limited st start)).
Proof.
  intros Hs HL. unfold x4_read_limited. destruct (X4_AUTH =? start); [|exact I].
  pose proof (ah_read_limited_reg st Hs HL) as R.
  destruct (ah_read_limited st) as [[h|k|e|c| | |] st1]; cbn [XR.qbind fst] in *; try contradiction; try exact I.
  exact R.
Qed.

(* Ipv6Extensions::read / read_limited (C12's model): content errors are the two of the property ... *)
(* the content errors of f satisfy C *)
Definition contents (C : IOM.cerr -> Prop) {A} (f : IOM.rstate -> IOM.qres A * IOM.rstate) : Prop :=
  forall st c, fst (f st) = IOM.QContent c -> C c.

Lemma qbind_content {A B} (r : IOM.qres A * IOM.rstate) (k : A -> IOM.rstate -> IOM.qres B * IOM.rstate) c :
  fst (XR.qbind r k) = IOM.QContent c ->
  fst r = IOM.QContent c \/ exists a st, r = (IOM.QOk a, st) /\ fst (k a st) = IOM.QContent c.
Proof.
  destruct r as [[a|x|e|c'| | |] st]; cbn [XR.qbind fst]; intros H; try discriminate.
  - right. exists a, st. split; [reflexivity|exact H].
  - left. injection H as <-. reflexivity.
Qed.

Lemma contents_bind C {A B} (f : IOM.rstate -> IOM.qres A * IOM.rstate) (k : A -> IOM.rstate -> IOM.qres B * IOM.rstate) :
  contents C f -> (forall a, contents C (k a)) -> contents C (fun st => XR.qbind (f st) k).
Proof.
  intros Hf Hk st c H. destruct (qbind_content _ _ _ H) as [H1|(a & st1 & _ & H2)]; [exact (Hf st c H1)|exact (Hk a st1 c H2)].
Qed.

Lemma rd_exact_no_content st n c : fst (XR.rd_exact st n) <> IOM.QContent c.
Proof.
  unfold XR.rd_exact. destruct (IOM.rs_lim st) as [r|].
  - unfold IOM.lr_read_exact. destruct (IOM.checked_sub _ _); [|discriminate].
    destruct (_ <? n); [discriminate|].
    destruct (IOM.io_read_exact (IOM.rs_src st) n) as [[bs|k| |] s']; discriminate.
  - destruct (IOM.io_read_exact (IOM.rs_src st) n) as [[bs|k| |] s']; discriminate.
Qed.

Lemma start_layer_no_content lim layer st c : fst (XR.start_layer lim layer st) <> IOM.QContent c.
Proof.
  unfold XR.start_layer. destruct lim; [|discriminate].
  destruct (IOM.rs_lim st); [|discriminate]. destruct (IOM.lr_start_layer _ _); discriminate.
Qed.

(* the two primitives raise none, so the content errors of the five programs are the constants in
   their text: CAuthZeroLen in auth_read, CHopNotAtStart in the loop *)
Lemma read6_content lim first st c :
  fst (XR.read6 lim first st) = IOM.QContent c -> c = IOM.CHopNotAtStart \/ c = IOM.CAuthZeroLen.
Proof.
  revert st c. change (contents (fun c => c = IOM.CHopNotAtStart \/ c = IOM.CAuthZeroLen) (XR.read6 lim first)).
  apply (P_read6 (fun A => contents _)).
  - intros A a st c H. discriminate H.
  - intros A B f k. apply contents_bind.
  - intros n st c H. destruct (rd_exact_no_content _ _ _ H).
  - intros l layer st c H. destruct (start_layer_no_content _ _ _ _ H).
  - intros A st c H. discriminate H.
  - intros A st c H. injection H as <-. auto.
  - intros A st c H. injection H as <-. auto.
  - intros A st c H. discriminate H.
Qed.

(* ... and never an impossible index / underflow / fuel: C16's theorem for the read program x6_read,
   carried over by C12's erasure theorem *)
Lemma read6_reg lim first s r : 1 <= IOS.src_chunk s -> IOM.lr_read r <= IOM.lr_max r ->
  qreg (fst (XR.read6 lim first (IOM.mk_rstate s (if lim then Some r else None)))).
Proof.
  intros Hc Hr.
  pose proof (proj1 (IOP.ext_readers_good lim first s r Hc Hr)) as G. cbv zeta in G.
  rewrite XE.read6_erase in G by exact Hc. unfold XE.qmap_pair in G. cbn [fst] in G.
  pose proof (read6_content lim first (IOM.mk_rstate s (if lim then Some r else None))) as C.
  destruct (fst (XR.read6 lim first _)) as [a|k|e|c| | |]; cbn in G; try contradiction; try exact I.
  destruct (C c eq_refl) as [-> | ->]; exact I.
Qed.

Lemma ip6_read_without_version_total r v : proper (ip6_read_without_version r v).
Proof.
  unfold ip6_read_without_version, read_exact.
  destruct (len r <? 39) eqn:E2; [exact I|]. ltb_all.
  split_pre r 39%nat E2. exact I.
Qed.

Lemma iph_read_total bs : bytes_ok bs -> proper (iph_read bs).
Proof.
  intros Hb. unfold iph_read. unfold read_exact at 1.
  destruct (len bs <? 1) eqn:E; [exact I|]. ltb_all.
  split_pre bs 1%nat E. rename n into value.
  change (take 1 ([value] ++ t)) with [value]. change (drop 1 ([value] ++ t)) with t. cbv iota beta zeta.
  apply bytes_ok_app in Hb. destruct Hb as [Hv Ht].
  assert (Hv' : value < 256) by (apply bytes_ok_cons in Hv; apply Hv).
  destruct (shr value 4 =? 4).
  - destruct (band value 15 <? 5) eqn:E5; [exact I|]. ltb_all.
    pose proof (band15_lt value) as B.
    replace (60 <? band value 15 * 4) with false by (symmetry; apply N.ltb_ge; lia).
    unfold read_exact. destruct (len t <? band value 15 * 4 - 1) eqn:E2; [exact I|]. ltb_all.
    destruct (ip4_to_header_ok (value :: take (band value 15 * 4 - 1) t)) as (header & -> & _);
      try (rewrite len_cons, len_take; lia).
    destruct (i4_total_len header <? band value 15 * 4); [exact I|].
    match goal with |- proper (match of_q ?x with _ => _ end) => assert (P : proper (of_q x)) end.
    { apply of_q_proper, x4_read_limited_reg; [|cbn; discriminate].
      split; [cbn; lia|]. split; [cbn; lia|]. cbn. apply bytes_ok_drop, Ht. }
    destruct (of_q _) as [[[ext next] r3]|e]; [exact I|exact P].
  - destruct (shr value 4 =? 6); [|exact I].
    pose proof (ip6_read_without_version_total t (band value 15)) as P.
    destruct (ip6_read_without_version t (band value 15)) as [[header r2]|e] eqn:R; [|exact P].
    match goal with |- proper (match of_q ?x with _ => _ end) => assert (Q : proper (of_q x)) end.
    { apply of_q_proper. unfold limited.
      apply (read6_reg true (i6_next_header header) (XR.cursor r2)); cbn; lia. }
    destruct (of_q _) as [[[ext next] r3]|e]; [exact I|exact Q].
Qed.

Definition x6_proper {E A} (r : XM.res E A) : Prop :=
  match r with XM.Panic | XM.OutOfFuel => False | _ => True end.

Lemma exts6_from_slice_total first bs : bytes_ok bs -> x6_proper (XM.from_slice first bs).
Proof.
  intros Hb. pose proof (ExtChain.DecodeTotal.from_slice_never_panics first bs Hb) as P.
  destruct (XM.from_slice first bs) as [[[e n] r]|x| |]; try contradiction; exact I.
Qed.

(* read over a Cursor, and read_limited behind a LimitedReader of ANY budget *)
Lemma exts6_read_total first bs : qreg (fst (XR.read6 false first (IOM.mk_rstate (XR.cursor bs) None))).
Proof. apply (read6_reg false first (XR.cursor bs) (IOM.mk_limrd 0 0 0 0 0)); cbn; lia. Qed.

Lemma exts6_read_limited_total first bs mx ls off ly :
  qreg (fst (XR.read6 true first (limited bs mx ls off ly))).
Proof. unfold limited. apply (read6_reg true first (XR.cursor bs)); cbn; lia. Qed.

(* decoders that need no hypothesis at all: any list of numbers *)
Theorem decoders_total_any : forall bs,
  proper (eth_from_slice bs) /\ proper (eth_read bs) /\
  proper (vl_from_slice bs) /\ proper (vl_read bs) /\
  proper (sll_from_slice bs) /\ proper (Sll.sll_read bs) /\
  proper (mac_from_slice bs) /\ proper (mac_read bs) /\
  proper (ip6_from_slice bs) /\ proper (ip6_read bs) /\
  proper (frag_from_slice bs) /\ proper (frag_read bs) /\
  proper (udp_from_slice bs) /\ proper (udp_read bs) /\
  proper (icmp4_from_slice bs) /\ proper (icmp4_read bs) /\
  proper (icmp6_from_slice bs) /\ proper (icmp6_read bs) /\
  proper (igmp_from_slice bs) /\ proper (grec_from_slice bs) /\ proper (pi_from_slice bs) /\
  (forall first, qreg (fst (XR.read6 false first (IOM.mk_rstate (XR.cursor bs) None)))) /\
  (forall first mx ls off ly, qreg (fst (XR.read6 true first (limited bs mx ls off ly)))).
Proof.
  intros bs.
  repeat match goal with |- _ /\ _ => split end.
  - apply eth_from_slice_total. - apply eth_read_total.
  - apply vl_from_slice_total. - apply vl_read_total.
  - apply sll_from_slice_total. - apply sll_read_total.
  - apply mac_from_slice_total. - apply mac_read_total.
  - apply ip6_from_slice_total. - apply ip6_read_total.
  - apply frag_from_slice_total. - apply frag_read_total.
  - apply udp_from_slice_total. - apply udp_read_total.
  - apply icmp4_from_slice_total. - apply icmp4_read_total.
  - apply icmp6_from_slice_total. - apply icmp6_read_total.
  - apply igmp_from_slice_total. - apply grec_from_slice_total. - apply pi_from_slice_total.
  - intros first. apply exts6_read_total.
  - intros first mx ls off ly. apply exts6_read_limited_total.
Qed.

(* decoders with a length octet: for bytes (a "byte" >= 256 would run the model into a buffer-index
   branch a real u8 cannot reach) *)
Theorem decoders_total_bytes : forall bs, bytes_ok bs ->
  proper (Tcp.from_slice bs) /\ proper (Tcp.read bs) /\
  proper (ip4_from_slice bs) /\ proper (ip4_read bs) /\
  proper (ah_from_slice bs) /\ proper (ah_read bs) /\
  proper (rx_from_slice bs) /\ proper (rx_read bs) /\
  proper (arp_from_slice bs) /\ proper (arp_read bs) /\
  (forall p, arp_from_slice bs = Ok p -> proper (arp_try_eth_ipv4 p)) /\
  (forall start, proper (x4_from_slice start bs) /\ proper (x4_read bs start)) /\
  (forall first, x6_proper (XM.from_slice first bs)) /\
  proper (iph_from_slice bs) /\ proper (iph_from_ipv4_slice bs) /\ proper (iph_from_ipv6_slice bs) /\
  proper (iph_read bs).
Proof.
  intros bs Hb.
  repeat match goal with |- _ /\ _ => split end.
  - apply tcp_from_slice_total, Hb. - apply tcp_read_total, Hb.
  - apply ip4_from_slice_total, Hb. - apply ip4_read_total, Hb.
  - apply ah_from_slice_total, Hb. - apply ah_read_total, Hb.
  - apply rx_from_slice_total, Hb. - apply rx_read_total, Hb.
  - apply arp_from_slice_total, Hb. - apply arp_read_total, Hb.
  - intros p H. exact (arp_try_eth_ipv4_total bs p Hb H).
  - intros start. split; [apply x4_from_slice_total, Hb|apply x4_read_total, Hb].
  - intros first. apply exts6_from_slice_total, Hb.
  - apply iph_from_slice_total, Hb. - apply iph_from_ipv4_slice_total, Hb.
  - apply iph_from_ipv6_slice_total, Hb. - apply iph_read_total, Hb.
Qed.

(* from_bytes([u8; N]): the argument type fixes the length *)
Theorem from_bytes_total : forall b,
  (len b = 14 -> proper (eth_from_bytes b)) /\ (len b = 4 -> proper (vl_from_bytes b)) /\
  (len b = 16 -> proper (sll_from_bytes b)) /\ (len b = 8 -> proper (udp_from_bytes b)) /\
  (len b = 32 -> proper (pi_from_bytes b)).
Proof.
  intros b. repeat split.
  - apply eth_from_bytes_total. - apply vl_from_bytes_total. - apply sll_from_bytes_total.
  - apply udp_from_bytes_total. - apply pi_from_bytes_total.
Qed.

(* the hypothesis is needed: a length "octet" of 300 sends the reader model into its buffer-index
   branch; both classes of results occur *)
Example decoders_total_ex :
  ah_read ([17; 300] ++ repeat 0 10) = Err EPanic /\
  ah_from_slice [17; 2; 0; 0; 0; 0; 0; 1; 0; 0; 0; 2; 1; 2; 3] = Err ELen /\
  ah_read [17; 2; 0; 0; 0; 0; 0; 1; 0; 0; 0; 2; 1; 2; 3] = Err EIo /\
  Tcp.from_slice (repeat 0 12 ++ [64] ++ repeat 0 7) = Err (EContent 4) /\
  iph_read [69] = Err EIo /\ iph_read [64] = Err (EContent 0) /\
  iph_from_slice [96; 0; 0; 0; 0; 8; 0; 64] = Err ELen /\
  (exists r, iph_read ([96; 0; 0; 0; 0; 200; 17; 64] ++ repeat 1 16 ++ repeat 2 16) = Ok r).
Proof. repeat split; try (vm_compute; reflexivity). eexists. vm_compute. reflexivity. Qed.
