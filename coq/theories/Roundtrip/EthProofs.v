(* Roundtrip/EthProofs.v -- C08 for Ethernet2Header *)
From EP Require Import Base.Bytes Roundtrip.Common Roundtrip.CommonProofs Roundtrip.LinkNetLemmas Roundtrip.Framed Roundtrip.Eth.
From Coq Require Import ZArith Lia ZifyN.
Local Open Scope N_scope.

Lemma wf_eth_iff h : wf_eth h = true <->
  len (eth_source h) = 6 /\ bytes_ok (eth_source h) /\ len (eth_destination h) = 6
  /\ bytes_ok (eth_destination h) /\ eth_ether_type h < 65536.
Proof. unfold wf_eth. rewrite !andb_true_iff, !N.eqb_eq, N.ltb_lt, !bytes_okb_spec. tauto. Qed.

Lemma eth_wf_facts h : wf_eth h = true ->
  len (eth_source h) = 6 /\ bytes_ok (eth_source h) /\ len (eth_destination h) = 6
  /\ bytes_ok (eth_destination h) /\ eth_ether_type h < 65536.
Proof. apply wf_eth_iff. Qed.

Lemma len_eth_to_bytes h : wf_eth h = true -> len (eth_to_bytes h) = 14.
Proof.
  intros W. destruct (eth_wf_facts h W) as (LS & _ & LD & _ & _).
  unfold eth_to_bytes. rewrite !len_app, LS, LD. reflexivity.
Qed.

(* to_bytes = write = write_to_slice (into any slice of at least 14 bytes; shorter slices are refused) *)
Theorem eth_ser_agree h out slice : wf_eth h = true ->
  eth_write out h = out ++ eth_to_bytes h /\ len (eth_to_bytes h) = eth_header_len h
  /\ (14 <= len slice -> eth_write_to_slice slice h = Ok (eth_to_bytes h ++ drop 14 slice, drop 14 slice))
  /\ (len slice < 14 -> eth_write_to_slice slice h = Err ELen).
Proof.
  intros W. pose proof (len_eth_to_bytes h W) as L. split; [reflexivity|]. split; [exact L|]. split; intros H.
  - unfold eth_write_to_slice. rewrite L, (ltb_false _ _ H). reflexivity.
  - unfold eth_write_to_slice. apply N.ltb_lt in H. rewrite H. reflexivity.
Qed.

Lemma eth_explicit h : wf_eth h = true -> exists d0 d1 d2 d3 d4 d5 s0 s1 s2 s3 s4 s5,
  eth_destination h = [d0; d1; d2; d3; d4; d5] /\ eth_source h = [s0; s1; s2; s3; s4; s5].
Proof.
  intros W. destruct (eth_wf_facts h W) as (LS & _ & LD & _ & _).
  destruct (len6_explicit _ LD) as (d0 & d1 & d2 & d3 & d4 & d5 & ED).
  destruct (len6_explicit _ LS) as (s0 & s1 & s2 & s3 & s4 & s5 & ES).
  exists d0, d1, d2, d3, d4, d5, s0, s1, s2, s3, s4, s5. split; assumption.
Qed.

Ltac eth_compute_slices :=
  repeat match goal with
  | |- context [slice_range ?s ?a ?b] =>
    let v := eval vm_compute in (slice_range s a b) in change (slice_range s a b) with v
  end.

Lemma eth_decoders_enc h : wf_eth h = true ->
  eth_to_header (eth_to_bytes h) = Ok h /\ eth_from_bytes (eth_to_bytes h) = Ok h.
Proof.
  intros W. destruct (eth_wf_facts h W) as (_ & _ & _ & _ & RE).
  destruct (eth_explicit h W) as (d0 & d1 & d2 & d3 & d4 & d5 & s0 & s1 & s2 & s3 & s4 & s5 & ED & ES).
  destruct h as [src dst et]. cbn [eth_destination eth_source eth_ether_type] in *. subst src dst.
  unfold eth_to_bytes, u16_to_be. cbn [eth_destination eth_source eth_ether_type app].
  set (e0 := (et / 256) mod 256). set (e1 := et mod 256).
  assert (EE : be16 e0 e1 = et) by (apply u16_be_roundtrip; exact RE).
  clearbody e0 e1. split.
  - unfold eth_to_header. eth_compute_slices. cbv iota beta. rewrite EE. reflexivity.
  - unfold eth_from_bytes. rewrite EE. reflexivity.
Qed.

(* no reserved bits: any 14 bytes decode to a well-formed header that re-encodes to exactly them *)
Lemma eth_to_header_inv hs h : bytes_ok hs -> len hs = 14 -> eth_to_header hs = Ok h ->
  wf_eth h = true /\ eth_to_bytes h = hs.
Proof.
  intros OK L. revert OK h. pattern hs. apply (all_lists_len 14); [|exact L]. cbn [all_lists].
  intros b0 b1 b2 b3 b4 b5 b6 b7 b8 b9 b10 b11 b12 b13 OK h. unfold eth_to_header. eth_compute_slices.
  cbv iota beta. intros H. apply Ok_inj in H. subst h. bytes_ok_split OK. split.
  - apply wf_eth_iff. cbn [eth_source eth_destination eth_ether_type]. pose proof (be16_bound b12 b13 B11 B12).
    repeat split; try assumption; repeat (apply bytes_ok_explicit_cons; [assumption|]); constructor.
  - unfold eth_to_bytes. cbn [eth_source eth_destination eth_ether_type].
    rewrite (u16_to_be_be16 b12 b13 B11 B12). reflexivity.
Qed.

Theorem eth_dec_enc h rest : wf_eth h = true ->
  eth_from_slice (eth_to_bytes h ++ rest) = Ok (h, rest) /\ eth_read (eth_to_bytes h ++ rest) = Ok (h, rest)
  /\ eth_from_bytes (eth_to_bytes h) = Ok h.
Proof.
  intros W. pose proof (len_eth_to_bytes h W) as L. destruct (eth_decoders_enc h W) as [HD HB].
  split; [|split; [|exact HB]].
  - apply (framed_app 14 eth_to_header); [exact L|exact HD].
  - unfold eth_read. rewrite read_exact_app, HD by (symmetry; exact L). reflexivity.
Qed.

Theorem eth_enc_dec bs h rest : bytes_ok bs -> eth_from_slice bs = Ok (h, rest) ->
  wf_eth h = true /\ bs = eth_to_bytes h ++ rest /\ len (eth_to_bytes h) = 14
  /\ eth_from_slice (eth_to_bytes h) = Ok (h, []).
Proof.
  intros OK H. apply (framed_inv 14 eth_to_header) in H. destruct H as (L & H & ->).
  destruct (eth_to_header_inv (take 14 bs) h) as [W E]; [apply bytes_ok_take, OK|rewrite len_take; lia|exact H|].
  split; [exact W|]. split; [rewrite E; symmetry; apply take_drop|]. split; [apply len_eth_to_bytes, W|].
  destruct (eth_dec_enc h [] W) as [D _]. rewrite app_nil_r in D. exact D.
Qed.

From EP Require Import Roundtrip.Spec Roundtrip.SpecLinkNet.
Theorem eth_spec h : eth_to_bytes h = eth_layout (eth_destination h) (eth_source h) (eth_ether_type h).
Proof. reflexivity. Qed.
