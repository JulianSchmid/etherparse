(* Roundtrip/RawExtProofs.v -- C08 for Ipv6RawExtHeader *)
From EP Require Import Base.Bytes Roundtrip.Common Roundtrip.CommonProofs Roundtrip.RawExt.
From Coq Require Import ZArith Lia ZifyN.
Local Open Scope N_scope.

Lemma wf_rx_iff h : wf_rx h = true <->
  rx_next_header h < 256 /\ rx_header_length h < 256 /\ len (rx_payload_buffer h) = 2046
  /\ bytes_ok (rx_payload_buffer h).
Proof. unfold wf_rx. rewrite !andb_true_iff, !N.ltb_lt, N.eqb_eq, bytes_okb_spec. tauto. Qed.

Definition rx_pl (h : Ipv6RawExtHeader) : bytes := take (6 + rx_header_length h * 8) (rx_payload_buffer h).

Lemma len_rx_pl h : wf_rx h = true -> len (rx_pl h) = 6 + rx_header_length h * 8.
Proof. intros W. destruct (proj1 (wf_rx_iff h) W) as (_ & L & BL & _). apply len_take_le. lia. Qed.

Lemma rx_payload_wf h : wf_rx h = true -> rx_payload h = Some (rx_pl h).
Proof.
  intros W. destruct (proj1 (wf_rx_iff h) W) as (_ & L & BL & _).
  apply slice_range_0. lia.
Qed.

Definition rx_enc (h : Ipv6RawExtHeader) : bytes := [rx_next_header h; rx_header_length h] ++ rx_pl h.

Lemma rx_to_bytes_wf h : wf_rx h = true -> rx_to_bytes h = Some (rx_enc h).
Proof.
  intros W. destruct (proj1 (wf_rx_iff h) W) as (_ & L & BL & _).
  unfold rx_to_bytes. rewrite (rx_payload_wf h W), (len_rx_pl h W). unfold RX_MAX_LEN.
  replace (2 + (6 + rx_header_length h * 8) <=? 2048) with true by (symmetry; apply N.leb_le; lia). reflexivity.
Qed.

Theorem rx_ser_agree h out : wf_rx h = true ->
  exists e, rx_to_bytes h = Some e /\ rx_write out h = Some (out ++ e) /\ len e = rx_header_len h.
Proof.
  intros W. exists (rx_enc h). split; [apply rx_to_bytes_wf; assumption|]. split.
  - unfold rx_write. rewrite (rx_payload_wf h W). reflexivity.
  - unfold rx_enc. rewrite len_app, (len_rx_pl h W). reflexivity.
Qed.

Lemma rx_new_raw_aligned nh p k : len p = 6 + k * 8 -> k < 256 ->
  rx_new_raw nh p = Some {| rx_next_header := nh; rx_header_length := k;
                            rx_payload_buffer := p ++ zeros (2046 - (6 + k * 8)) |}.
Proof.
  intros L K. unfold rx_new_raw, RX_MAX_PAYLOAD_LEN. rewrite L.
  replace (6 + k * 8 <? 6) with false by (symmetry; apply N.ltb_ge; lia).
  replace (2046 <? 6 + k * 8) with false by (symmetry; apply N.ltb_ge; lia).
  replace (6 + k * 8 + 2) with ((k + 1) * 8) by lia.
  rewrite N.mod_mul by lia. change (0 =? 0) with true. cbn [negb].
  replace (6 + k * 8 - 6) with (k * 8) by lia.
  rewrite N.div_mul, as_u8_small by lia. reflexivity.
Qed.

Theorem rx_dec_enc h rest : wf_rx h = true ->
  exists e, rx_to_bytes h = Some e /\ rx_from_slice (e ++ rest) = Ok (rx_norm h, rest)
            /\ rx_read (e ++ rest) = Ok (rx_norm h, rest) /\ rx_eqb (rx_norm h) h = true.
Proof.
  intros W. destruct (proj1 (wf_rx_iff h) W) as (R1 & L & BL & BO).
  set (P := rx_pl h). assert (LP : len P = 6 + rx_header_length h * 8) by (apply len_rx_pl; assumption).
  exists (rx_enc h). split; [apply rx_to_bytes_wf; assumption|].
  unfold rx_enc. fold P. cbn [app].
  assert (HDR : rx_to_header (rx_next_header h :: rx_header_length h :: P) = Ok (rx_norm h)).
  { unfold rx_to_header. change (rd (_ :: _ :: P) 0) with (Some (rx_next_header h)). cbv iota beta.
    rewrite !len_cons.
    replace (1 + (1 + len P) <? 2) with false by (symmetry; apply N.ltb_ge; lia).
    change (drop 2 (_ :: _ :: P)) with P.
    rewrite (rx_new_raw_aligned _ P (rx_header_length h) LP L). reflexivity. }
  split; [|split].
  - unfold rx_from_slice, rx_slice_from_slice.
    change (rd (_ :: _ :: P ++ rest) 1) with (Some (rx_header_length h)). cbv iota beta zeta.
    rewrite !len_cons, len_app, LP.
    replace (1 + (1 + (6 + rx_header_length h * 8 + len rest)) <? 8) with false by (symmetry; apply N.ltb_ge; lia).
    replace (1 + (1 + (6 + rx_header_length h * 8 + len rest)) <? (rx_header_length h + 1) * 8) with false
      by (symmetry; apply N.ltb_ge; lia).
    assert (TK : take ((rx_header_length h + 1) * 8) (rx_next_header h :: rx_header_length h :: P ++ rest)
                 = rx_next_header h :: rx_header_length h :: P).
    { change (rx_next_header h :: rx_header_length h :: P ++ rest) with ((rx_next_header h :: rx_header_length h :: P) ++ rest).
      apply take_app_len. rewrite !len_cons, LP. lia. }
    rewrite TK, HDR.
    change (rx_next_header h :: rx_header_length h :: P ++ rest) with ((rx_next_header h :: rx_header_length h :: P) ++ rest).
    rewrite slice_from_app by reflexivity. reflexivity.
  - unfold rx_read.
    change (rx_next_header h :: rx_header_length h :: P ++ rest) with ([rx_next_header h; rx_header_length h] ++ P ++ rest).
    rewrite read_exact_app by reflexivity. cbv iota beta zeta. unfold RX_MAX_PAYLOAD_LEN.
    rewrite (proj2 (N.ltb_ge 2046 _)) by lia. rewrite read_exact_app by (rewrite LP; lia).
    unfold rx_norm. fold (rx_pl h). fold P.
    replace (rx_header_length h * 8 + 6) with (6 + rx_header_length h * 8) by lia. reflexivity.
  - unfold rx_eqb, rx_norm. cbn [rx_next_header]. rewrite N.eqb_refl. cbn [andb].
    rewrite (rx_payload_wf h W). unfold rx_payload. cbn [rx_header_length rx_payload_buffer].
    fold (rx_pl h). fold P. rewrite slice_range_0 by (rewrite len_app, LP; lia).
    rewrite take_app_len by (symmetry; exact LP). apply bytes_eqb_refl.
Qed.

(* no reserved bits: re-encoding reproduces the consumed bytes exactly *)
Theorem rx_enc_dec bs h rest : bytes_ok bs -> rx_from_slice bs = Ok (h, rest) ->
  wf_rx h = true /\ rx_norm h = h /\
  exists e, rx_to_bytes h = Some e /\ bs = e ++ rest /\ len e = rx_header_len h
            /\ rx_from_slice e = Ok (h, []).
Proof.
  intros OK H. unfold rx_from_slice, rx_slice_from_slice in H.
  destruct (len bs <? 8) eqn:L; [discriminate|]. apply N.ltb_ge in L.
  destruct bs as [|b0 [|b1 r]]; try (rewrite ?len_cons, ?len_nil in L; lia).
  match type of H with context [rd ?s 1] => change (rd s 1) with (Some b1) in H end.
  cbv iota beta zeta in H.
  set (bs := b0 :: b1 :: r) in *.
  destruct (len bs <? (b1 + 1) * 8) eqn:L2; [discriminate|]. apply N.ltb_ge in L2.
  pose proof OK as OK'. unfold bs in OK'. bytes_ok_split OK'.
  set (P := take (6 + b1 * 8) r).
  assert (LR : 6 + b1 * 8 <= len r) by (unfold bs in L2; rewrite !len_cons in L2; lia).
  assert (LP : len P = 6 + b1 * 8) by (unfold P; rewrite len_take; lia).
  assert (TK : take ((b1 + 1) * 8) bs = b0 :: b1 :: P).
  { change bs with ([b0; b1] ++ r). change (b0 :: b1 :: P) with ([b0; b1] ++ P).
    apply take_app_more. change (len [b0; b1]) with 2. lia. }
  assert (BP : bytes_ok P) by (unfold P; apply bytes_ok_take; exact OK').
  rewrite TK in H. unfold slice_from in H.
  replace (len (b0 :: b1 :: P)) with ((b1 + 1) * 8) in H by (rewrite !len_cons, LP; lia).
  replace ((b1 + 1) * 8 <=? len bs) with true in H by (symmetry; apply N.leb_le; exact L2).
  unfold rx_to_header in H. change (rd (b0 :: b1 :: P) 0) with (Some b0) in H. cbv iota beta in H.
  rewrite !len_cons in H.
  replace (1 + (1 + len P) <? 2) with false in H by (symmetry; apply N.ltb_ge; lia).
  change (drop 2 (b0 :: b1 :: P)) with P in H.
  rewrite (rx_new_raw_aligned b0 P b1 LP B0) in H.
  injection H as Hh Hrest.
  assert (WF : wf_rx h = true).
  { rewrite <- Hh. apply wf_rx_iff. cbn [rx_next_header rx_header_length rx_payload_buffer].
    rewrite len_app, LP, len_zeros. repeat split; try assumption; [lia|].
    apply bytes_ok_app. split; [exact BP|apply bytes_ok_zeros]. }
  assert (NM : rx_norm h = h).
  { rewrite <- Hh. unfold rx_norm. cbn [rx_next_header rx_header_length rx_payload_buffer].
    rewrite (take_app_len P) by (symmetry; exact LP). reflexivity. }
  assert (PL : rx_pl h = P).
  { rewrite <- Hh. unfold rx_pl. cbn [rx_header_length rx_payload_buffer]. apply take_app_len. symmetry. exact LP. }
  split; [exact WF|]. split; [exact NM|].
  destruct (rx_dec_enc h [] WF) as (e & E1 & E2 & _ & _).
  exists e. split; [exact E1|].
  rewrite app_nil_r, NM in E2.
  rewrite (rx_to_bytes_wf h WF) in E1. apply Some_inj in E1.
  assert (EE : e = b0 :: b1 :: P).
  { rewrite <- E1. unfold rx_enc. rewrite PL, <- Hh. reflexivity. }
  split; [|split; [|exact E2]].
  - rewrite EE, <- Hrest. rewrite <- TK. symmetry. apply take_drop.
  - rewrite EE, <- Hh. unfold rx_header_len. cbn [rx_header_length]. rewrite !len_cons, LP. lia.
Qed.

From EP Require Import Roundtrip.Spec Roundtrip.SpecLinkNet.

Theorem rx_spec h : wf_rx h = true ->
  rx_to_bytes h = Some (rawext_layout (rx_next_header h) (rx_pl h)).
Proof.
  intros W. rewrite (rx_to_bytes_wf h W). f_equal.
  unfold rawext_layout, rx_enc. rewrite (len_rx_pl h W).
  replace ((2 + (6 + rx_header_length h * 8)) / 8 - 1) with (rx_header_length h); [reflexivity|].
  replace (2 + (6 + rx_header_length h * 8)) with ((rx_header_length h + 1) * 8) by lia.
  rewrite N.div_mul by lia. lia.
Qed.

(* a payload that new_raw / set_payload accept: 6 + a multiple of 8 whose count fits the u8 length field *)
Lemma rx_payload_len_ok (p : bytes) : 6 <= len p -> len p <= 2046 -> (len p + 2) mod 8 = 0 ->
  len p = 6 + (len p - 6) / 8 * 8 /\ (len p - 6) / 8 < 256 /\ as_u8 ((len p - 6) / 8) = (len p - 6) / 8.
Proof.
  intros L6 L M. pose proof (N.div_mod (len p + 2) 8 ltac:(lia)) as X. rewrite M in X.
  assert (D : len p = 6 + (len p - 6) / 8 * 8).
  { replace (len p - 6) with (((len p + 2) / 8 - 1) * 8) by lia. rewrite N.div_mul by lia. lia. }
  assert (K : (len p - 6) / 8 < 256) by lia. rewrite as_u8_small by exact K. auto.
Qed.

Lemma rx_new_raw_wf nh p h : nh < 256 -> bytes_ok p ->
  rx_new_raw nh p = Some h -> wf_rx h = true /\ rx_pl h = p /\ rx_norm h = h.
Proof.
  intros A OK H. unfold rx_new_raw, RX_MAX_PAYLOAD_LEN in H.
  destruct (len p <? 6) eqn:L6; [discriminate|]. apply N.ltb_ge in L6.
  destruct (2046 <? len p) eqn:L; [discriminate|]. apply N.ltb_ge in L.
  destruct ((len p + 2) mod 8 =? 0) eqn:M; [|discriminate]. cbn [negb] in H. apply N.eqb_eq in M.
  apply Some_inj in H. destruct (rx_payload_len_ok p L6 L M) as (D & K & U).
  rewrite U in H. subst h. split; [|split].
  - apply wf_rx_iff. cbn [rx_next_header rx_header_length rx_payload_buffer].
    rewrite len_app, len_zeros. repeat split; try assumption; [lia|].
    apply bytes_ok_app. split; [assumption|apply bytes_ok_zeros].
  - unfold rx_pl. cbn [rx_header_length rx_payload_buffer]. apply take_app_len. symmetry. exact D.
  - unfold rx_norm. cbn [rx_next_header rx_header_length rx_payload_buffer].
    rewrite <- D. rewrite (take_app_len p) by reflexivity. reflexivity.
Qed.

(* set_payload keeps the value well-formed and may leave stale bytes behind the payload *)
Lemma rx_set_payload_wf h p h' : wf_rx h = true -> bytes_ok p ->
  rx_set_payload h p = Some h' -> wf_rx h' = true /\ rx_pl h' = p.
Proof.
  intros W OK H. destruct (proj1 (wf_rx_iff h) W) as (A & _ & BL & BO).
  unfold rx_set_payload, RX_MAX_PAYLOAD_LEN in H.
  destruct (len p <? 6) eqn:L6; [discriminate|]. apply N.ltb_ge in L6.
  destruct (2046 <? len p) eqn:L; [discriminate|]. apply N.ltb_ge in L.
  destruct ((len p + 2) mod 8 =? 0) eqn:M; [|discriminate]. cbn [negb] in H. apply N.eqb_eq in M.
  destruct (len (rx_payload_buffer h) <? len p); [discriminate|].
  apply Some_inj in H. destruct (rx_payload_len_ok p L6 L M) as (D & K & U).
  rewrite U in H. subst h'. split.
  - apply wf_rx_iff. cbn [rx_next_header rx_header_length rx_payload_buffer].
    rewrite len_app, len_drop, BL. repeat split; try assumption; [lia|].
    apply bytes_ok_app. split; [assumption|apply bytes_ok_drop; assumption].
  - unfold rx_pl. cbn [rx_header_length rx_payload_buffer]. apply take_app_len. symmetry. exact D.
Qed.
