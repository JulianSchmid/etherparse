(* Roundtrip/PropsTransport.v -- test vectors for property C08, transport /
   control-message types: UdpHeader, Icmpv4Header, Icmpv6Header, IgmpHeader,
   ReportGroupRecordV3Header, ndp PrefixInformation.  One module per type: sample
   values (extreme fields, reserved bits set in the input, values that are not
   well-formed) with their bytes and decodings, checked by evaluation; they show that
   the hypotheses of the theorems of Props/C08.v (modules TR_UDP .. TR_PREFIX) can be
   met and what the excluded cases do. *)
From EP Require Import Base.Bytes.
From EP Require CtlMsg.Spec CtlMsg.Model.
From EP Require Import Roundtrip.Common.
From EP Require Roundtrip.Udp Roundtrip.UdpProofs Roundtrip.Icmp4 Roundtrip.Icmp4Proofs.
From EP Require Roundtrip.Icmp6 Roundtrip.Icmp6Proofs Roundtrip.Igmp Roundtrip.IgmpProofs.
From EP Require Roundtrip.Grec Roundtrip.GrecProofs Roundtrip.Prefix Roundtrip.PrefixProofs.
Local Open Scope N_scope.

(* ------------------------------------------------------------------ UdpHeader *)
Module UDP.
Import Roundtrip.Udp Roundtrip.UdpProofs.

Definition ex_max : UdpHeader :=
  {| udp_source_port := 65535; udp_destination_port := 65535; udp_length := 65535; udp_checksum := 65535 |}.
Definition ex_mixed : UdpHeader :=
  {| udp_source_port := 258; udp_destination_port := 53; udp_length := 8; udp_checksum := 43981 |}.
Example C08_Udp_ex_wf : wf_udp ex_max = true /\ wf_udp ex_mixed = true.
Proof. split; vm_compute; reflexivity. Qed.
Example C08_Udp_ex_bytes : udp_to_bytes ex_mixed = [1; 2; 0; 53; 0; 8; 171; 205].
Proof. vm_compute. reflexivity. Qed.
Example C08_Udp_ex_dec : udp_from_slice [1; 2; 0; 53; 0; 8; 171; 205; 9] = Ok (ex_mixed, [9]).
Proof. vm_compute. reflexivity. Qed.
End UDP.

(* ------------------------------------------------------------------ Icmpv4Header *)
Module ICMP4.
Import CtlMsg.Spec Roundtrip.Icmp4 Roundtrip.Icmp4Proofs.
Import Roundtrip.Common.

Definition ex_frag : Icmpv4Header :=
  {| icmp4_type := V4DestinationUnreachable (DuFragmentationNeeded 1500); icmp4_checksum := 65535 |}.
Definition ex_ts : Icmpv4Header :=
  {| icmp4_type := V4TimestampReply (mkTimestamp 65535 1 4294967295 2 3); icmp4_checksum := 258 |}.
Definition ex_raw : Icmpv4Header :=
  {| icmp4_type := V4Unknown 3 16 1 2 3 4; icmp4_checksum := 0 |}.
Example C08_Icmp4_ex_wf : wf_icmp4 ex_frag = true /\ wf_icmp4 ex_ts = true /\ wf_icmp4 ex_raw = true.
Proof. repeat split; vm_compute; reflexivity. Qed.
(* a raw value whose (type, code) has a typed variant is NOT well-formed: it decodes to the typed variant *)
Example C08_Icmp4_ex_not_wf :
  wf_icmp4 {| icmp4_type := V4Unknown 8 0 0 1 0 2; icmp4_checksum := 0 |} = false /\
  icmp4_from_slice [8; 0; 0; 0; 0; 1; 0; 2] = Ok ({| icmp4_type := V4EchoRequest 1 2; icmp4_checksum := 0 |}, []).
Proof. split; vm_compute; reflexivity. Qed.
Example C08_Icmp4_ex_bytes : icmp4_to_bytes ex_frag = Some [3; 4; 255; 255; 0; 0; 5; 220].
Proof. vm_compute. reflexivity. Qed.
(* the unused bytes 4-5 are dropped by the typed variant *)
Example C08_Icmp4_ex_dec : icmp4_from_slice [3; 4; 255; 255; 170; 187; 5; 220; 9] = Ok (ex_frag, [9]).
Proof. vm_compute. reflexivity. Qed.
Example C08_Icmp4_ex_timestamp_trailing :
  exists e, icmp4_to_bytes ex_ts = Some e /\ len e = 20 /\ icmp4_from_slice (e ++ [0]) = Err ELen
            /\ icmp4_read (e ++ [0]) = Ok (ex_ts, [0]).
Proof. eexists. split; [vm_compute; reflexivity|]. repeat split; vm_compute; reflexivity. Qed.
End ICMP4.

(* ------------------------------------------------------------------ Icmpv6Header *)
Module ICMP6.
Import CtlMsg.Spec Roundtrip.Icmp6 Roundtrip.Icmp6Proofs.
Import Roundtrip.Common.

Definition ex_ra : Icmpv6Header :=
  {| icmp6_type := V6RouterAdvertisement 255 true false 65535; icmp6_checksum := 65535 |}.
Definition ex_na : Icmpv6Header :=
  {| icmp6_type := V6NeighborAdvertisement true false true; icmp6_checksum := 1 |}.
Definition ex_pp : Icmpv6Header :=
  {| icmp6_type := V6ParameterProblem OptionTooBig 4294967295; icmp6_checksum := 258 |}.
Example C08_Icmp6_ex_wf : wf_icmp6 ex_ra = true /\ wf_icmp6 ex_na = true /\ wf_icmp6 ex_pp = true.
Proof. repeat split; vm_compute; reflexivity. Qed.
Example C08_Icmp6_ex_not_wf :
  wf_icmp6 {| icmp6_type := V6Unknown 136 0 224 0 0 0; icmp6_checksum := 0 |} = false /\
  wf_icmp6 {| icmp6_type := V6Unknown 136 1 224 0 0 0; icmp6_checksum := 0 |} = true.
Proof. split; vm_compute; reflexivity. Qed.
Example C08_Icmp6_ex_bytes :
  icmp6_to_bytes ex_ra = Some [134; 0; 255; 255; 255; 128; 255; 255] /\
  icmp6_to_bytes ex_na = Some [136; 0; 0; 1; 160; 0; 0; 0].
Proof. split; vm_compute; reflexivity. Qed.
(* reserved bits set in the input are dropped *)
Example C08_Icmp6_ex_dec :
  icmp6_from_slice [136; 0; 0; 1; 191; 255; 255; 255; 9] = Ok (ex_na, [9]) /\
  icmp6_from_slice [134; 0; 255; 255; 255; 191; 255; 255] = Ok (ex_ra, []).
Proof. split; vm_compute; reflexivity. Qed.
End ICMP6.

(* ------------------------------------------------------------------ IgmpHeader *)
Module IGMP.
Import CtlMsg.Spec Roundtrip.Igmp Roundtrip.IgmpProofs.
Import Roundtrip.Common.

Definition ex_q3 : IgmpHeader :=
  {| igmp_type := IgMembershipQueryWithSources 255 224 0 0 1 15 255 65535; igmp_checksum := 65535 |}.
Definition ex_v3 : IgmpHeader :=
  {| igmp_type := IgMembershipReportV3 1 2 3; igmp_checksum := 4 |}.
Example C08_Igmp_ex_wf : wf_igmp ex_q3 = true /\ wf_igmp ex_v3 = true
  /\ wf_igmp {| igmp_type := IgUnknown 18 0 1 2 3 4; igmp_checksum := 0 |} = false.
Proof. repeat split; vm_compute; reflexivity. Qed.
Example C08_Igmp_ex_bytes : igmp_to_bytes ex_v3 = Some [34; 0; 0; 4; 1; 2; 0; 3].
Proof. vm_compute. reflexivity. Qed.
Example C08_Igmp_ex_dec : igmp_from_slice [34; 170; 0; 4; 1; 2; 0; 3; 9] = Ok (ex_v3, [9]).
Proof. vm_compute. reflexivity. Qed.
Example C08_Igmp_ex_query_trailing :
  let h := {| igmp_type := IgMembershipQuery 100 224 0 0 1; igmp_checksum := 7 |} in
  exists e, igmp_to_bytes h = Some e /\
    igmp_from_slice (e ++ [1; 2; 0; 3]) =
      Ok ({| igmp_type := IgMembershipQueryWithSources 100 224 0 0 1 1 2 3; igmp_checksum := 7 |}, [])
    /\ igmp_from_slice (e ++ [1]) = Err ELen.
Proof. exact igmp_query_trailing. Qed.
End IGMP.

(* ------------------------------------------------------------------ ReportGroupRecordV3Header *)
Module GREC.
Import CtlMsg.Spec Roundtrip.Grec Roundtrip.GrecProofs.
Import Roundtrip.Common.

Definition ex_max : GroupRecord := mkGroupRecord 255 255 65535 239 255 255 250.
Example C08_Grec_ex_wf : wf_grec ex_max = true. Proof. vm_compute. reflexivity. Qed.
Example C08_Grec_ex_bytes : grec_to_bytes (mkGroupRecord 4 0 258 224 0 0 22) = [4; 0; 1; 2; 224; 0; 0; 22].
Proof. vm_compute. reflexivity. Qed.
Example C08_Grec_ex_dec :
  grec_from_slice [4; 0; 1; 2; 224; 0; 0; 22; 9] = Ok (mkGroupRecord 4 0 258 224 0 0 22, [9]).
Proof. vm_compute. reflexivity. Qed.
End GREC.

(* ------------------------------------------------------------------ ndp PrefixInformation *)
Module PREFIX.
Import Roundtrip.Prefix Roundtrip.PrefixProofs.

Definition ex_pi : PrefixInformation :=
  {| pi_prefix_length := 64; pi_on_link := true; pi_autonomous := false; pi_valid_lifetime := 4294967295;
     pi_preferred_lifetime := 258; pi_prefix := [32; 1; 13; 184] ++ repeat 0 11 ++ [255] |}.
Example C08_Prefix_ex_wf : wf_pi ex_pi = true. Proof. vm_compute. reflexivity. Qed.
Example C08_Prefix_ex_bytes : pi_to_bytes ex_pi =
  Some ([3; 4; 64; 128; 255; 255; 255; 255; 0; 0; 1; 2; 0; 0; 0; 0; 32; 1; 13; 184] ++ repeat 0 11 ++ [255]).
Proof. vm_compute. reflexivity. Qed.
(* reserved bits set in the input are dropped, the value is the same *)
Example C08_Prefix_ex_dec :
  pi_from_slice ([3; 4; 64; 191; 255; 255; 255; 255; 0; 0; 1; 2; 9; 9; 9; 9; 32; 1; 13; 184] ++ repeat 0 11 ++ [255])
  = Ok ex_pi.
Proof. vm_compute. reflexivity. Qed.
End PREFIX.
