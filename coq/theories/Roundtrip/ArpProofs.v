(* Roundtrip/ArpProofs.v -- C08 for ArpPacket and the ArpEthIpv4Packet view *)
From EP Require Import Base.Bytes Roundtrip.Common Roundtrip.CommonProofs Roundtrip.LinkNetLemmas Roundtrip.Arp.
From Coq Require Import ZArith Lia ZifyN.
Local Open Scope N_scope.

Lemma arp_wf_buf_iff buf n : arp_wf_buf buf n = true <-> n <= len buf /\ len buf <= 255 /\ bytes_ok buf.
Proof. unfold arp_wf_buf. rewrite !andb_true_iff, !N.leb_le, bytes_okb_spec. tauto. Qed.

Lemma arp_wf_buf_facts buf n : arp_wf_buf buf n = true -> n <= len buf /\ len buf <= 255 /\ bytes_ok buf.
Proof. apply arp_wf_buf_iff. Qed.

(* a buffer that holds exactly its n live bytes *)
Lemma arp_wf_buf_exact X n : len X = n -> n < 256 -> bytes_ok X -> arp_wf_buf X n = true.
Proof. intros L H B. apply arp_wf_buf_iff. repeat split; [lia|lia|exact B]. Qed.

Lemma wf_arp_iff h : wf_arp h = true <->
  arp_hw_addr_type h < 65536 /\ arp_proto_addr_type h < 65536 /\ arp_operation h < 65536
  /\ arp_hw_addr_size h < 256 /\ arp_proto_addr_size h < 256
  /\ arp_wf_buf (arp_sender_hw_addr_buf h) (arp_hw_addr_size h) = true
  /\ arp_wf_buf (arp_sender_protocol_addr_buf h) (arp_proto_addr_size h) = true
  /\ arp_wf_buf (arp_target_hw_addr_buf h) (arp_hw_addr_size h) = true
  /\ arp_wf_buf (arp_target_protocol_addr_buf h) (arp_proto_addr_size h) = true.
Proof. unfold wf_arp. rewrite !andb_true_iff, !N.ltb_lt. tauto. Qed.

Lemma arp_wf_facts h : wf_arp h = true ->
  arp_hw_addr_type h < 65536 /\ arp_proto_addr_type h < 65536 /\ arp_operation h < 65536
  /\ arp_hw_addr_size h < 256 /\ arp_proto_addr_size h < 256
  /\ arp_wf_buf (arp_sender_hw_addr_buf h) (arp_hw_addr_size h) = true
  /\ arp_wf_buf (arp_sender_protocol_addr_buf h) (arp_proto_addr_size h) = true
  /\ arp_wf_buf (arp_target_hw_addr_buf h) (arp_hw_addr_size h) = true
  /\ arp_wf_buf (arp_target_protocol_addr_buf h) (arp_proto_addr_size h) = true.
Proof. apply wf_arp_iff. Qed.

Definition arp_sh h := take (arp_hw_addr_size h) (arp_sender_hw_addr_buf h).
Definition arp_sp h := take (arp_proto_addr_size h) (arp_sender_protocol_addr_buf h).
Definition arp_th h := take (arp_hw_addr_size h) (arp_target_hw_addr_buf h).
Definition arp_tp h := take (arp_proto_addr_size h) (arp_target_protocol_addr_buf h).
Definition arp_enc h := arp_first8 h ++ arp_sh h ++ arp_sp h ++ arp_th h ++ arp_tp h.

Lemma arp_buf_slice_wf buf n : arp_wf_buf buf n = true ->
  arp_buf_slice buf n = Some (take n buf) /\ len (take n buf) = n /\ bytes_ok (take n buf).
Proof.
  intros W. destruct (arp_wf_buf_facts _ _ W) as (A & B & C). unfold arp_buf_slice.
  rewrite (leb_true _ _ A). split; [reflexivity|]. split; [rewrite len_take; lia|apply bytes_ok_take; exact C].
Qed.

Lemma len_arp_first8 h : len (arp_first8 h) = 8.
Proof. reflexivity. Qed.

Lemma arp_lens h : wf_arp h = true ->
  len (arp_sh h) = arp_hw_addr_size h /\ len (arp_sp h) = arp_proto_addr_size h
  /\ len (arp_th h) = arp_hw_addr_size h /\ len (arp_tp h) = arp_proto_addr_size h.
Proof.
  intros W. destruct (arp_wf_facts h W) as (_ & _ & _ & _ & _ & W1 & W2 & W3 & W4).
  destruct (arp_buf_slice_wf _ _ W1) as (_ & L1 & _). destruct (arp_buf_slice_wf _ _ W2) as (_ & L2 & _).
  destruct (arp_buf_slice_wf _ _ W3) as (_ & L3 & _). destruct (arp_buf_slice_wf _ _ W4) as (_ & L4 & _).
  repeat split; assumption.
Qed.

Lemma len_arp_enc h : wf_arp h = true -> len (arp_enc h) = arp_packet_len h.
Proof.
  intros W. destruct (arp_lens h W) as (L1 & L2 & L3 & L4).
  unfold arp_enc, arp_packet_len. rewrite !len_app, len_arp_first8, L1, L2, L3, L4. lia.
Qed.

Lemma arp_to_bytes_wf h : wf_arp h = true -> arp_to_bytes h = Some (arp_enc h).
Proof.
  intros W. pose proof (len_arp_enc h W) as LE.
  destruct (arp_wf_facts h W) as (_ & _ & _ & H1 & H2 & W1 & W2 & W3 & W4).
  destruct (arp_buf_slice_wf _ _ W1) as (S1 & _). destruct (arp_buf_slice_wf _ _ W2) as (S2 & _).
  destruct (arp_buf_slice_wf _ _ W3) as (S3 & _). destruct (arp_buf_slice_wf _ _ W4) as (S4 & _).
  unfold arp_to_bytes, arp_sender_hw_addr, arp_sender_protocol_addr, arp_target_hw_addr, arp_target_protocol_addr.
  rewrite S1, S2, S3, S4. fold (arp_sh h) (arp_sp h) (arp_th h) (arp_tp h). fold (arp_enc h).
  rewrite LE. unfold arp_packet_len, ARP_MAX_LEN.
  rewrite (leb_true _ 1028) by lia. reflexivity.
Qed.

Theorem arp_ser_agree h out : wf_arp h = true ->
  exists e, arp_to_bytes h = Some e /\ arp_write out h = Some (out ++ e) /\ len e = arp_packet_len h.
Proof.
  intros W. exists (arp_enc h). split; [apply arp_to_bytes_wf; exact W|]. split.
  - unfold arp_write. rewrite (arp_to_bytes_wf h W). reflexivity.
  - apply len_arp_enc. exact W.
Qed.

(* to_packet on  F8 ++ A ++ B ++ C ++ D  with the sizes in bytes 4 and 5 *)
Lemma arp_to_packet_windows b0 b1 b2 b3 hs ps b6 b7 A B C D :
  len A = hs -> len B = ps -> len C = hs -> len D = ps -> hs < 256 -> ps < 256 ->
  arp_to_packet ([b0; b1; b2; b3; hs; ps; b6; b7] ++ A ++ B ++ C ++ D) =
  Ok {| arp_hw_addr_type := be16 b0 b1; arp_proto_addr_type := be16 b2 b3;
        arp_hw_addr_size := hs; arp_proto_addr_size := ps; arp_operation := be16 b6 b7;
        arp_sender_hw_addr_buf := A; arp_sender_protocol_addr_buf := B;
        arp_target_hw_addr_buf := C; arp_target_protocol_addr_buf := D |}.
Proof.
  intros LA LB LC LD H1 H2.
  destruct (four_windows [b0; b1; b2; b3; hs; ps; b6; b7] A B C D eq_refl) as (S1 & S2 & S3 & S4).
  cbv zeta in *. rewrite LA in S1. rewrite LA, LB in S2. rewrite LA, LB, LC in S3. rewrite LA, LB, LC, LD in S4.
  replace (8 + hs + ps + hs) with (8 + hs * 2 + ps) in S4 by lia.
  revert S1 S2 S3 S4. cbn [app]. intros S1 S2 S3 S4.
  unfold arp_to_packet. rewrite S1, S2, S3, S4.
  unfold arp_new_unchecked. rewrite LA, LB, LC, LD.
  rewrite (ltb_false 255 hs) by lia. rewrite (ltb_false 255 ps) by lia. cbn [orb].
  unfold as_u8. rewrite !N.mod_small by lia. reflexivity.
Qed.

Lemma arp_first8_explicit h : arp_first8 h =
  [(arp_hw_addr_type h / 256) mod 256; arp_hw_addr_type h mod 256;
   (arp_proto_addr_type h / 256) mod 256; arp_proto_addr_type h mod 256;
   arp_hw_addr_size h; arp_proto_addr_size h;
   (arp_operation h / 256) mod 256; arp_operation h mod 256].
Proof. reflexivity. Qed.

Theorem arp_dec_enc h rest : wf_arp h = true ->
  exists e, arp_to_bytes h = Some e /\ len e = arp_packet_len h
    /\ arp_from_slice (e ++ rest) = Ok (arp_norm h) /\ drop (arp_packet_len h) (e ++ rest) = rest
    /\ arp_read (e ++ rest) = Ok (arp_norm h, rest) /\ arp_eqb (arp_norm h) h = true.
Proof.
  intros W. exists (arp_enc h). pose proof (len_arp_enc h W) as LE.
  split; [apply arp_to_bytes_wf; exact W|]. split; [exact LE|].
  destruct (arp_wf_facts h W) as (R1 & R2 & R3 & H1 & H2 & W1 & W2 & W3 & W4).
  destruct (arp_lens h W) as (L1 & L2 & L3 & L4).
  assert (NM : Ok (arp_norm h) =
    Ok {| arp_hw_addr_type := be16 ((arp_hw_addr_type h / 256) mod 256) (arp_hw_addr_type h mod 256);
          arp_proto_addr_type := be16 ((arp_proto_addr_type h / 256) mod 256) (arp_proto_addr_type h mod 256);
          arp_hw_addr_size := arp_hw_addr_size h; arp_proto_addr_size := arp_proto_addr_size h;
          arp_operation := be16 ((arp_operation h / 256) mod 256) (arp_operation h mod 256);
          arp_sender_hw_addr_buf := arp_sh h; arp_sender_protocol_addr_buf := arp_sp h;
          arp_target_hw_addr_buf := arp_th h; arp_target_protocol_addr_buf := arp_tp h |}).
  { rewrite !u16_be_roundtrip by assumption. reflexivity. }
  split; [|split; [|split]].
  - unfold arp_from_slice, arp_slice_from_slice. rewrite len_app, LE.
    assert (X : 8 <= arp_packet_len h) by (unfold arp_packet_len; lia).
    rewrite (ltb_false (arp_packet_len h + len rest) 8) by lia.
    assert (R4 : rd (arp_enc h ++ rest) 4 = Some (arp_hw_addr_size h)) by reflexivity.
    assert (R5 : rd (arp_enc h ++ rest) 5 = Some (arp_proto_addr_size h)) by reflexivity.
    rewrite R4, R5. cbv iota beta zeta. fold (arp_packet_len h).
    rewrite (ltb_false (arp_packet_len h + len rest) (arp_packet_len h)) by lia.
    rewrite (take_app_len (arp_enc h)) by (symmetry; exact LE).
    unfold arp_enc. rewrite arp_first8_explicit.
    rewrite (arp_to_packet_windows _ _ _ _ _ _ _ _ _ _ _ _ L1 L2 L3 L4 H1 H2). symmetry. exact NM.
  - apply drop_app_len. symmetry. exact LE.
  - unfold arp_read, arp_enc. rewrite <- !app_assoc.
    rewrite (read_exact_app' (arp_first8 h)) by reflexivity.
    rewrite arp_first8_explicit. cbv iota beta.
    rewrite (ltb_false 255 (arp_hw_addr_size h)) by lia. rewrite (ltb_false 255 (arp_proto_addr_size h)) by lia.
    cbn [orb].
    rewrite (read_exact_app' (arp_sh h)) by exact L1. rewrite (read_exact_app' (arp_sp h)) by exact L2.
    rewrite (read_exact_app' (arp_th h)) by exact L3. rewrite (read_exact_app' (arp_tp h)) by exact L4.
    rewrite !u16_be_roundtrip by assumption. reflexivity.
  - unfold arp_eqb, arp_norm. cbn [arp_hw_addr_type arp_proto_addr_type arp_hw_addr_size arp_proto_addr_size arp_operation].
    rewrite !N.eqb_refl. cbn [andb].
    unfold arp_sender_hw_addr, arp_sender_protocol_addr, arp_target_hw_addr, arp_target_protocol_addr.
    cbn [arp_hw_addr_size arp_proto_addr_size arp_sender_hw_addr_buf arp_sender_protocol_addr_buf
         arp_target_hw_addr_buf arp_target_protocol_addr_buf].
    destruct (arp_buf_slice_wf _ _ W1) as (S1 & _). destruct (arp_buf_slice_wf _ _ W2) as (S2 & _).
    destruct (arp_buf_slice_wf _ _ W3) as (S3 & _). destruct (arp_buf_slice_wf _ _ W4) as (S4 & _).
    rewrite S1, S2, S3, S4. fold (arp_sh h) (arp_sp h) (arp_th h) (arp_tp h).
    unfold arp_buf_slice. rewrite L1, L2, L3, L4. rewrite !N.leb_refl.
    rewrite (take_all _ (arp_sh h)) by lia. rewrite (take_all _ (arp_sp h)) by lia.
    rewrite (take_all _ (arp_th h)) by lia. rewrite (take_all _ (arp_tp h)) by lia.
    unfold arp_opt_eqb. rewrite !bytes_eqb_refl. reflexivity.
Qed.

(* no reserved bits: the consumed bytes are reproduced exactly *)
Theorem arp_enc_dec bs h : bytes_ok bs -> arp_from_slice bs = Ok h ->
  wf_arp h = true /\ arp_norm h = h /\ arp_packet_len h <= len bs
  /\ exists e, arp_to_bytes h = Some e /\ e = take (arp_packet_len h) bs
       /\ arp_from_slice (e ++ drop (arp_packet_len h) bs) = Ok h.
Proof.
  intros OK H. unfold arp_from_slice, arp_slice_from_slice in H.
  destruct (len bs <? 8) eqn:L; [discriminate|]. apply N.ltb_ge in L.
  destruct bs as [|b0 [|b1 [|b2 [|b3 [|hs [|ps [|b6 [|b7 r]]]]]]]]; try (rewrite ?len_cons, ?len_nil in L; lia).
  match type of H with context [rd ?s 4] => change (rd s 4) with (Some hs) in H end.
  match type of H with context [rd ?s 5] => change (rd s 5) with (Some ps) in H end.
  cbv iota beta zeta in H.
  set (F := [b0; b1; b2; b3; hs; ps; b6; b7]) in *.
  set (bs := b0 :: b1 :: b2 :: b3 :: hs :: ps :: b6 :: b7 :: r) in *.
  assert (EB : bs = F ++ r) by reflexivity.
  destruct (len bs <? 8 + hs * 2 + ps * 2) eqn:L2; [discriminate|]. apply N.ltb_ge in L2.
  pose proof OK as OK'. unfold bs in OK'. bytes_ok_split OK'.
  assert (LR : hs + ps + hs + ps <= len r) by (rewrite EB, len_app in L2; change (len F) with 8 in L2; lia).
  set (XA := take hs r). set (XB := take ps (drop hs r)).
  set (XC := take hs (drop (hs + ps) r)). set (XD := take ps (drop (hs + ps + hs) r)).
  assert (LA : len XA = hs) by (unfold XA; rewrite len_take; lia).
  assert (LB : len XB = ps) by (unfold XB; rewrite len_take, len_drop; lia).
  assert (LC : len XC = hs) by (unfold XC; rewrite len_take, len_drop; lia).
  assert (LD : len XD = ps) by (unfold XD; rewrite len_take, len_drop; lia).
  assert (T4 : take (hs + ps + hs + ps) r = XA ++ XB ++ XC ++ XD).
  { rewrite (take_drop_split r (hs + ps + hs) ps). rewrite (take_drop_split r (hs + ps) hs).
    rewrite (take_drop_split r hs ps). unfold XA, XB, XC, XD. rewrite <- !app_assoc. reflexivity. }
  assert (TK : take (8 + hs * 2 + ps * 2) bs = F ++ XA ++ XB ++ XC ++ XD).
  { rewrite EB, <- T4. apply take_app_more. change (len F) with 8. lia. }
  rewrite TK in H. unfold F in H.
  rewrite (arp_to_packet_windows _ _ _ _ _ _ _ _ _ _ _ _ LA LB LC LD B3 B4) in H.
  apply Ok_inj in H.
  assert (BA : bytes_ok XA) by (unfold XA; apply bytes_ok_take; exact OK').
  assert (BB : bytes_ok XB) by (unfold XB; apply bytes_ok_take, bytes_ok_drop; exact OK').
  assert (BC : bytes_ok XC) by (unfold XC; apply bytes_ok_take, bytes_ok_drop; exact OK').
  assert (BD : bytes_ok XD) by (unfold XD; apply bytes_ok_take, bytes_ok_drop; exact OK').
  assert (WF : wf_arp h = true).
  { rewrite <- H. apply wf_arp_iff.
    cbn [arp_hw_addr_type arp_proto_addr_type arp_hw_addr_size arp_proto_addr_size arp_operation
         arp_sender_hw_addr_buf arp_sender_protocol_addr_buf arp_target_hw_addr_buf arp_target_protocol_addr_buf].
    repeat split; try assumption; try (apply be16_bound; assumption); apply arp_wf_buf_exact; assumption. }
  assert (NM : arp_norm h = h).
  { rewrite <- H. unfold arp_norm.
    cbn [arp_hw_addr_type arp_proto_addr_type arp_hw_addr_size arp_proto_addr_size arp_operation
         arp_sender_hw_addr_buf arp_sender_protocol_addr_buf arp_target_hw_addr_buf arp_target_protocol_addr_buf].
    rewrite (take_all _ XA), (take_all _ XB), (take_all _ XC), (take_all _ XD) by lia. reflexivity. }
  assert (PL : arp_packet_len h = 8 + hs * 2 + ps * 2).
  { rewrite <- H. reflexivity. }
  split; [exact WF|]. split; [exact NM|]. split; [rewrite PL; exact L2|].
  exists (arp_enc h). split; [apply arp_to_bytes_wf; exact WF|]. split.
  - rewrite PL, TK. rewrite <- H. unfold arp_enc, arp_sh, arp_sp, arp_th, arp_tp, arp_first8.
    cbn [arp_hw_addr_type arp_proto_addr_type arp_hw_addr_size arp_proto_addr_size arp_operation
         arp_sender_hw_addr_buf arp_sender_protocol_addr_buf arp_target_hw_addr_buf arp_target_protocol_addr_buf].
    rewrite (take_all _ XA), (take_all _ XB), (take_all _ XC), (take_all _ XD) by lia.
    rewrite !u16_to_be_be16 by assumption. reflexivity.
  - destruct (arp_dec_enc h (drop (arp_packet_len h) bs) WF) as (e & E1 & _ & E2 & _).
    rewrite (arp_to_bytes_wf h WF) in E1. apply Some_inj in E1. subst e. rewrite NM in E2. exact E2.
Qed.

From EP Require Import Roundtrip.Spec Roundtrip.SpecLinkNet.

Theorem arp_spec h : wf_arp h = true ->
  arp_to_bytes h = Some (arp_layout (arp_hw_addr_type h) (arp_proto_addr_type h) (arp_operation h)
                                    (arp_sh h) (arp_sp h) (arp_th h) (arp_tp h)).
Proof.
  intros W. rewrite (arp_to_bytes_wf h W). destruct (arp_lens h W) as (L1 & L2 & _ & _).
  unfold arp_layout. rewrite L1, L2. reflexivity.
Qed.

(* new() gives a well-formed value holding the given addresses *)
Lemma arp_new_wf hat pat op sh sp th tp h :
  hat < 65536 -> pat < 65536 -> op < 65536 -> bytes_ok sh -> bytes_ok sp -> bytes_ok th -> bytes_ok tp ->
  arp_new hat pat op sh sp th tp = Some h ->
  wf_arp h = true /\ arp_norm h = h /\ arp_sh h = sh /\ arp_sp h = sp /\ arp_th h = th /\ arp_tp h = tp.
Proof.
  intros A1 A2 A3 B1 B2 B3 B4 H. unfold arp_new in H.
  destruct (len sh =? len th) eqn:E1; [|discriminate]. destruct (len sp =? len tp) eqn:E2; [|discriminate].
  cbn [negb] in H. apply N.eqb_eq in E1, E2.
  destruct (255 <? len sh) eqn:L1; [discriminate|]. destruct (255 <? len sp) eqn:L2; [discriminate|].
  apply N.ltb_ge in L1, L2. unfold arp_new_unchecked in H.
  rewrite (ltb_false 255 (len sh)), (ltb_false 255 (len sp)), (ltb_false 255 (len th)), (ltb_false 255 (len tp)) in H by lia.
  cbn [orb] in H. apply Some_inj in H. unfold as_u8 in H. rewrite !N.mod_small in H by lia. subst h.
  rewrite wf_arp_iff. unfold arp_norm, arp_sh, arp_sp, arp_th, arp_tp.
  cbn [arp_hw_addr_type arp_proto_addr_type arp_hw_addr_size arp_proto_addr_size arp_operation
       arp_sender_hw_addr_buf arp_sender_protocol_addr_buf arp_target_hw_addr_buf arp_target_protocol_addr_buf].
  rewrite (take_all _ sh), (take_all _ sp), (take_all _ th), (take_all _ tp) by lia.
  repeat split; try assumption; try lia; apply arp_wf_buf_exact; try assumption; lia.
Qed.

(* ------------------------------------------------------------------ ArpEthIpv4Packet *)
Lemma wf_ae_iff v : wf_ae v = true <->
  ae_operation v < 65536 /\ len (ae_sender_mac v) = 6 /\ bytes_ok (ae_sender_mac v)
  /\ len (ae_sender_ipv4 v) = 4 /\ bytes_ok (ae_sender_ipv4 v)
  /\ len (ae_target_mac v) = 6 /\ bytes_ok (ae_target_mac v)
  /\ len (ae_target_ipv4 v) = 4 /\ bytes_ok (ae_target_ipv4 v).
Proof. unfold wf_ae. rewrite !andb_true_iff, N.ltb_lt, !N.eqb_eq, !bytes_okb_spec. tauto. Qed.

(* try_eth_ipv4 succeeds only on Ethernet / IPv4 types and sizes, and the view holds the live prefixes *)
Lemma arp_try_eth_ipv4_ok p v : arp_try_eth_ipv4 p = Ok v ->
  arp_hw_addr_type p = 1 /\ arp_proto_addr_type p = 2048 /\ arp_hw_addr_size p = 6 /\ arp_proto_addr_size p = 4
  /\ arp_packet_len p = 28
  /\ (6 <= len (arp_sender_hw_addr_buf p) /\ 4 <= len (arp_sender_protocol_addr_buf p)
      /\ 6 <= len (arp_target_hw_addr_buf p) /\ 4 <= len (arp_target_protocol_addr_buf p))
  /\ v = {| ae_operation := arp_operation p;
            ae_sender_mac := take 6 (arp_sender_hw_addr_buf p); ae_sender_ipv4 := take 4 (arp_sender_protocol_addr_buf p);
            ae_target_mac := take 6 (arp_target_hw_addr_buf p); ae_target_ipv4 := take 4 (arp_target_protocol_addr_buf p) |}.
Proof.
  unfold arp_try_eth_ipv4, arp_assume_init.
  destruct (arp_hw_addr_type p =? 1) eqn:T1; [|discriminate].
  destruct (arp_proto_addr_type p =? 2048) eqn:T2; [|discriminate].
  destruct (arp_hw_addr_size p =? 6) eqn:H6; [|discriminate].
  destruct (arp_proto_addr_size p =? 4) eqn:H4; [|discriminate].
  cbn [negb]. apply N.eqb_eq in T1, T2, H6, H4.
  destruct (6 <=? len (arp_sender_hw_addr_buf p)) eqn:G1; [|discriminate].
  destruct (4 <=? len (arp_sender_protocol_addr_buf p)) eqn:G2; [|discriminate].
  destruct (6 <=? len (arp_target_hw_addr_buf p)) eqn:G3; [|discriminate].
  destruct (4 <=? len (arp_target_protocol_addr_buf p)) eqn:G4; [|discriminate].
  apply N.leb_le in G1, G2, G3, G4. intros H. apply Ok_inj in H.
  unfold arp_packet_len. rewrite H6, H4. repeat split; auto.
Qed.

(* the view's own serialiser = ArpPacket::to_bytes of the converted packet; 28 bytes *)
Theorem ae_ser_agree v : wf_ae v = true ->
  exists p, ae_to_arp_packet v = Some p /\ wf_arp p = true /\ arp_to_bytes p = Some (ae_to_bytes v)
            /\ len (ae_to_bytes v) = 28 /\ arp_try_eth_ipv4 p = Ok v.
Proof.
  intros W. destruct (proj1 (wf_ae_iff v) W) as (R & L1 & B1 & L2 & B2 & L3 & B3 & L4 & B4).
  unfold ae_to_arp_packet.
  assert (N : arp_new 1 2048 (ae_operation v) (ae_sender_mac v) (ae_sender_ipv4 v) (ae_target_mac v) (ae_target_ipv4 v)
              = arp_new_unchecked 1 2048 (ae_operation v) (ae_sender_mac v) (ae_sender_ipv4 v) (ae_target_mac v)
                  (ae_target_ipv4 v)).
  { unfold arp_new. rewrite L1, L2, L3, L4. reflexivity. }
  destruct (arp_new_unchecked 1 2048 (ae_operation v) (ae_sender_mac v) (ae_sender_ipv4 v) (ae_target_mac v)
              (ae_target_ipv4 v)) as [p|] eqn:E.
  2:{ unfold arp_new_unchecked in E. rewrite L1, L2, L3, L4 in E. discriminate. }
  destruct (arp_new_wf 1 2048 (ae_operation v) _ _ _ _ p ltac:(lia) ltac:(lia) R B1 B2 B3 B4 N)
    as (WP & _ & S1 & S2 & S3 & S4).
  exists p. split; [reflexivity|]. split; [exact WP|].
  unfold arp_new_unchecked in E. rewrite L1, L2, L3, L4 in E. cbn [orb] in E.
  change (255 <? 6) with false in E. change (255 <? 4) with false in E. cbn [orb] in E.
  apply Some_inj in E.
  split; [|split].
  - rewrite (arp_to_bytes_wf p WP). unfold arp_enc. rewrite S1, S2, S3, S4. rewrite <- E. reflexivity.
  - unfold ae_to_bytes. rewrite !len_app, L1, L2, L3, L4. reflexivity.
  - rewrite <- E. unfold arp_try_eth_ipv4, arp_assume_init.
    cbn [arp_hw_addr_type arp_proto_addr_type arp_hw_addr_size arp_proto_addr_size arp_operation
         arp_sender_hw_addr_buf arp_sender_protocol_addr_buf arp_target_hw_addr_buf arp_target_protocol_addr_buf].
    rewrite L1, L2, L3, L4. cbv [as_u8]. 
    change (6 mod 256) with 6. change (4 mod 256) with 4.
    change (1 =? 1) with true. change (2048 =? 2048) with true. change (6 =? 6) with true. change (4 =? 4) with true.
    change (6 <=? 6) with true. change (4 <=? 4) with true. cbn [negb].
    rewrite !take_all by lia. destruct v. reflexivity.
Qed.

(* decode(encode v ++ rest) through ArpPacket::from_slice + try_from gives v back *)
Theorem ae_dec_enc v rest : wf_ae v = true ->
  exists p, arp_from_slice (ae_to_bytes v ++ rest) = Ok p /\ arp_try_eth_ipv4 p = Ok v
            /\ drop 28 (ae_to_bytes v ++ rest) = rest.
Proof.
  intros W. destruct (ae_ser_agree v W) as (p & P1 & WP & P2 & L & P3).
  destruct (arp_dec_enc p rest WP) as (e & E1 & E2 & E3 & E4 & _).
  rewrite P2 in E1. apply Some_inj in E1. subst e.
  exists (arp_norm p). split; [exact E3|]. split.
  - (* try_eth_ipv4 only looks at the first size bytes *)
    destruct (arp_try_eth_ipv4_ok p v P3) as (T1 & T2 & H6 & H4 & _ & (G1 & G2 & G3 & G4) & ->).
    unfold arp_try_eth_ipv4, arp_norm, arp_assume_init.
    cbn [arp_hw_addr_type arp_proto_addr_type arp_hw_addr_size arp_proto_addr_size arp_operation
         arp_sender_hw_addr_buf arp_sender_protocol_addr_buf arp_target_hw_addr_buf arp_target_protocol_addr_buf].
    rewrite T1, T2, H6, H4. cbn [negb N.eqb Pos.eqb].
    rewrite !len_take. rewrite !N.min_l by assumption.
    change (6 <=? 6) with true. change (4 <=? 4) with true. cbv iota.
    rewrite !take_take by lia. reflexivity.
  - apply drop_app_len. symmetry. exact L.
Qed.

(* accepted bytes that convert to the view: the view re-encodes to exactly the 28 consumed bytes *)
Theorem ae_enc_dec bs p v : bytes_ok bs -> arp_from_slice bs = Ok p -> arp_try_eth_ipv4 p = Ok v ->
  wf_ae v = true /\ 28 <= len bs /\ ae_to_bytes v = take 28 bs.
Proof.
  intros OK H T. destruct (arp_enc_dec bs p OK H) as (WP & NM & PL & e & E1 & E2 & _).
  destruct (arp_wf_facts p WP) as (R1 & R2 & R3 & H1 & H2 & W1 & W2 & W3 & W4).
  destruct (arp_buf_slice_wf _ _ W1) as (_ & L1 & K1). destruct (arp_buf_slice_wf _ _ W2) as (_ & L2 & K2).
  destruct (arp_buf_slice_wf _ _ W3) as (_ & L3 & K3). destruct (arp_buf_slice_wf _ _ W4) as (_ & L4 & K4).
  destruct (arp_try_eth_ipv4_ok p v T) as (T1 & T2 & H6 & H4 & P28 & _ & ->).
  rewrite H6 in L1, L3, K1, K3. rewrite H4 in L2, L4, K2, K4. rewrite P28 in *.
  split; [|split; [exact PL|]].
  - apply wf_ae_iff. cbn [ae_operation ae_sender_mac ae_sender_ipv4 ae_target_mac ae_target_ipv4].
    repeat split; assumption.
  - rewrite <- E2. rewrite (arp_to_bytes_wf p WP) in E1. apply Some_inj in E1. rewrite <- E1.
    unfold ae_to_bytes, arp_enc, arp_first8, arp_sh, arp_sp, arp_th, arp_tp.
    cbn [ae_operation ae_sender_mac ae_sender_ipv4 ae_target_mac ae_target_ipv4].
    rewrite T1, T2, H6, H4. rewrite <- !app_assoc. reflexivity.
Qed.
