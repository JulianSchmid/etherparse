(* The reader programs of ExtChain/ReadModel.v (raw_read, frag_read, auth_read, read6_loop, read6)
   are built from start_layer, rd_exact, constant results and qbind.  A predicate on reader
   computations that holds of the two primitives and of the constant results that occur, and is
   closed under qbind, holds of all five programs.  Each lemma asks only for the constants its
   program can return. *)
From EP Require Import Base.Bytes.
From EP Require IoFault.Model ExtChain.Model ExtChain.ReadModel.
From Coq Require Import ZArith.
Local Open Scope N_scope.
Module XM := EP.ExtChain.Model.
Module XR := EP.ExtChain.ReadModel.
Module IOM := EP.IoFault.Model.

Section ReaderInd.
  Variable P : forall A, (IOM.rstate -> IOM.qres A * IOM.rstate) -> Prop.
  Hypothesis P_ret : forall A (a : A), P A (fun st => (IOM.QOk a, st)).
  Hypothesis P_bind : forall A B f k, P A f -> (forall a, P B (k a)) -> P B (fun st => XR.qbind (f st) k).
  Hypothesis P_rd : forall n, P _ (fun st => XR.rd_exact st n).
  Hypothesis P_layer : forall lim layer, P _ (XR.start_layer lim layer).
  Hypothesis P_bad : forall A, P A (fun st => (IOM.QBad, st)).

  Lemma P_raw_read lim : P _ (XR.raw_read lim).
  Proof.
    unfold XR.raw_read. apply P_bind; [apply P_layer|]. intros _.
    apply (P_bind _ _ (fun st => XR.rd_exact st 2)); [apply P_rd|]. intros d.
    destruct (rd d 0) as [nh|]; [|apply P_bad]. destruct (rd d 1) as [hl|]; [|apply P_bad].
    apply (P_bind _ _ (fun st => XR.rd_exact st (hl * 8 + 6))); [apply P_rd|]. intros p. apply P_ret.
  Qed.

  Lemma P_frag_read lim : P _ (XR.frag_read lim).
  Proof.
    unfold XR.frag_read. apply P_bind; [apply P_layer|]. intros _.
    apply (P_bind _ _ (fun st => XR.rd_exact st 8)); [apply P_rd|]. intros b.
    destruct (XM.frag_slice_to_header b); [apply P_ret|apply P_bad..].
  Qed.

  Hypothesis P_auth_zero : forall A, P A (fun st => (IOM.QContent IOM.CAuthZeroLen, st)).

  (* a missing octet makes the whole ten-way match QBad at once, so the reads are taken one by one *)
  Lemma P_auth_read lim : P _ (XR.auth_read lim).
  Proof.
    unfold XR.auth_read. apply P_bind; [apply P_layer|]. intros _.
    apply (P_bind _ _ (fun st => XR.rd_exact st 12)); [apply P_rd|]. intros s.
    destruct (rd s 0); [|apply P_bad]. destruct (rd s 1) as [pl|]; [|apply P_bad].
    destruct (rd s 4); [|apply P_bad]. destruct (rd s 5); [|apply P_bad].
    destruct (rd s 6); [|apply P_bad]. destruct (rd s 7); [|apply P_bad].
    destruct (rd s 8); [|apply P_bad]. destruct (rd s 9); [|apply P_bad].
    destruct (rd s 10); [|apply P_bad]. destruct (rd s 11); [|apply P_bad].
    destruct (pl <? 1); [apply P_auth_zero|].
    apply (P_bind _ _ (fun st => XR.rd_exact st ((pl - 1) * 4))); [apply P_rd|]. intros icv. apply P_ret.
  Qed.

  Hypothesis P_hop : forall A, P A (fun st => (IOM.QContent IOM.CHopNotAtStart, st)).
  Hypothesis P_fuel : forall A, P A (fun st => (IOM.QFuel, st)).

  Lemma P_read6_loop fuel : forall lim result n, P _ (XR.read6_loop fuel lim result n).
  Proof.
    induction fuel as [|f IH]; intros lim result n; [apply P_fuel|].
    cbn [XR.read6_loop]. destruct (XM.arm_of n).
    - apply P_hop.
    - destruct (XM.routing result) as [r|].
      + destruct (XM.is_some _); [apply P_ret|]. apply P_bind; [apply P_raw_read|]. intros h. apply IH.
      + destruct (XM.is_some _); [apply P_ret|]. apply P_bind; [apply P_raw_read|]. intros h. apply IH.
    - destruct (XM.is_some _); [apply P_ret|]. apply P_bind; [apply P_raw_read|]. intros h. apply IH.
    - destruct (XM.is_some _); [apply P_ret|]. apply P_bind; [apply P_frag_read|]. intros h. apply IH.
    - destruct (XM.is_some _); [apply P_ret|]. apply P_bind; [apply P_auth_read|]. intros h. apply IH.
    - apply P_ret.
  Qed.

  Theorem P_read6 lim first : P _ (XR.read6 lim first).
  Proof.
    unfold XR.read6. destruct (_ =? first); [|apply P_read6_loop].
    apply P_bind; [apply P_raw_read|]. intros h. apply P_read6_loop.
  Qed.
End ReaderInd.
