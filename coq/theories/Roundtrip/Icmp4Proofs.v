(* Roundtrip/Icmp4Proofs.v -- C08 for Icmpv4Header / Icmpv4Type.
   The type/code dispatch of the decoder is taken from the C17 lemma
   CtlMsg.Proofs.icmp4_cases (model = RFC table for ALL numbers). *)
From EP Require Import Base.Bytes.
From EP Require Import CtlMsg.Spec CtlMsg.Model CtlMsg.Proofs.
From EP Require Import Roundtrip.Common Roundtrip.CommonProofs Roundtrip.Msg8 Roundtrip.Icmp4.
From Coq Require Import ZArith Lia ZifyN.
Local Open Scope N_scope.

Definition icmp4_of_bytes (t c b4 b5 b6 b7 : N) : Icmpv4Type :=
  match lookup t c icmp4_table with
  | Some f => f [t; c; 0; 0; b4; b5; b6; b7]
  | None => V4Unknown t c b4 b5 b6 b7
  end.

Lemma spec4_of_bytes t c k0 k1 b4 b5 b6 b7 rest :
  match lookup t c icmp4_table with
  | Some f => f (t :: c :: k0 :: k1 :: b4 :: b5 :: b6 :: b7 :: rest)
  | None => V4Unknown t c b4 b5 b6 b7
  end = icmp4_of_bytes t c b4 b5 b6 b7.
Proof. unfold icmp4_of_bytes, icmp4_table. cbn [lookup]. table_cases. reflexivity. Qed.

Lemma icmp4_of_bytes_hl t c b4 b5 b6 b7 : icmp4_type_header_len (icmp4_of_bytes t c b4 b5 b6 b7) = 8.
Proof. unfold icmp4_of_bytes, icmp4_table. cbn [lookup]. table_cases. reflexivity. Qed.

Lemma icmp4_header_8 t c k0 k1 b4 b5 b6 b7 rest :
  lookup t c icmp4_fixed_table = None ->
  icmp4_slice_header (t :: c :: k0 :: k1 :: b4 :: b5 :: b6 :: b7 :: rest) =
  Ok {| icmp4_type := icmp4_of_bytes t c b4 b5 b6 b7; icmp4_checksum := be16 k0 k1 |}.
Proof.
  intros LF. pose proof (icmp4_cases t c k0 k1 b4 b5 b6 b7 rest) as C. cbv zeta in C.
  rewrite LF in C. destruct C as (_ & _ & Ht).
  unfold icmp4_slice_header. rewrite Ht, spec4_of_bytes. reflexivity.
Qed.

Lemma icmp4_from_slice_8 t c k0 k1 b4 b5 b6 b7 rest :
  lookup t c icmp4_fixed_table = None ->
  icmp4_from_slice (t :: c :: k0 :: k1 :: b4 :: b5 :: b6 :: b7 :: rest) =
  Ok ({| icmp4_type := icmp4_of_bytes t c b4 b5 b6 b7; icmp4_checksum := be16 k0 k1 |}, rest).
Proof.
  intros LF. pose proof (icmp4_cases t c k0 k1 b4 b5 b6 b7 rest) as C. cbv zeta in C.
  rewrite LF in C. destruct C as (Hf & _ & _).
  unfold icmp4_from_slice. rewrite Hf, len8.
  replace (8 + len rest <? 8) with false by (symmetry; apply N.ltb_ge; lia).
  rewrite (icmp4_header_8 _ _ _ _ _ _ _ _ _ LF).
  unfold icmp4_header_len. cbn [icmp4_type]. rewrite icmp4_of_bytes_hl.
  unfold slice_from. rewrite len8.
  replace (8 <=? 8 + len rest) with true by (symmetry; apply N.leb_le; lia).
  reflexivity.
Qed.

(* the test of `read` (type 14 | 13 and code 0) is the membership in the RFC table
   of the fixed-size messages *)
Lemma icmp4_read_test t c :
  ((t =? 14) || (t =? 13)) && (0 =? c) =
  match lookup t c icmp4_fixed_table with Some _ => true | None => false end.
Proof.
  unfold icmp4_fixed_table. cbn [lookup].
  rewrite (N.eqb_sym 13 t), (N.eqb_sym 14 t).
  destruct (t =? 13) eqn:E13, (t =? 14) eqn:E14, (0 =? c); try reflexivity.
Qed.

Lemma icmp4_read_8 t c k0 k1 b4 b5 b6 b7 rest :
  lookup t c icmp4_fixed_table = None ->
  icmp4_read (t :: c :: k0 :: k1 :: b4 :: b5 :: b6 :: b7 :: rest) =
  Ok ({| icmp4_type := icmp4_of_bytes t c b4 b5 b6 b7; icmp4_checksum := be16 k0 k1 |}, rest).
Proof.
  intros LF. unfold icmp4_read.
  change (t :: c :: k0 :: k1 :: b4 :: b5 :: b6 :: b7 :: rest) with ([t; c; k0; k1; b4; b5; b6; b7] ++ rest).
  rewrite read_exact_app by reflexivity.
  change (rd [t; c; k0; k1; b4; b5; b6; b7] 0) with (Some t).
  change (rd [t; c; k0; k1; b4; b5; b6; b7] 1) with (Some c). cbv iota beta.
  rewrite icmp4_read_test, LF.
  rewrite (icmp4_header_8 _ _ _ _ _ _ _ _ [] LF). reflexivity.
Qed.

Definition icmp4_ts_mk (t : N) : TimestampMessage -> Icmpv4Type :=
  if t =? 13 then V4TimestampRequest else V4TimestampReply.

Lemma icmp4_header_20 t k0 k1 i0 i1 s0 s1 o0 o1 o2 o3 r0 r1 r2 r3 t0 t1 t2 t3 :
  t = 13 \/ t = 14 ->
  icmp4_slice_header [t; 0; k0; k1; i0; i1; s0; s1; o0; o1; o2; o3; r0; r1; r2; r3; t0; t1; t2; t3] =
  Ok {| icmp4_type := icmp4_ts_mk t (mkTimestamp (be16 i0 i1) (be16 s0 s1) (be32 o0 o1 o2 o3)
                                        (be32 r0 r1 r2 r3) (be32 t0 t1 t2 t3));
        icmp4_checksum := be16 k0 k1 |}.
Proof. intros [-> | ->]; reflexivity. Qed.

Lemma icmp4_from_slice_20 t k0 k1 i0 i1 s0 s1 o0 o1 o2 o3 r0 r1 r2 r3 t0 t1 t2 t3 :
  t = 13 \/ t = 14 ->
  icmp4_from_slice [t; 0; k0; k1; i0; i1; s0; s1; o0; o1; o2; o3; r0; r1; r2; r3; t0; t1; t2; t3] =
  Ok ({| icmp4_type := icmp4_ts_mk t (mkTimestamp (be16 i0 i1) (be16 s0 s1) (be32 o0 o1 o2 o3)
                                         (be32 r0 r1 r2 r3) (be32 t0 t1 t2 t3));
         icmp4_checksum := be16 k0 k1 |}, []).
Proof. intros [-> | ->]; reflexivity. Qed.

Lemma icmp4_read_20 t k0 k1 i0 i1 s0 s1 o0 o1 o2 o3 r0 r1 r2 r3 t0 t1 t2 t3 rest :
  t = 13 \/ t = 14 ->
  icmp4_read ([t; 0; k0; k1; i0; i1; s0; s1; o0; o1; o2; o3; r0; r1; r2; r3; t0; t1; t2; t3] ++ rest) =
  Ok ({| icmp4_type := icmp4_ts_mk t (mkTimestamp (be16 i0 i1) (be16 s0 s1) (be32 o0 o1 o2 o3)
                                         (be32 r0 r1 r2 r3) (be32 t0 t1 t2 t3));
         icmp4_checksum := be16 k0 k1 |}, rest).
Proof.
  intros T. unfold icmp4_read.
  change ([t; 0; k0; k1; i0; i1; s0; s1; o0; o1; o2; o3; r0; r1; r2; r3; t0; t1; t2; t3] ++ rest)
    with ([t; 0; k0; k1; i0; i1; s0; s1] ++ ([o0; o1; o2; o3; r0; r1; r2; r3; t0; t1; t2; t3] ++ rest)).
  rewrite read_exact_app by reflexivity.
  change (rd [t; 0; k0; k1; i0; i1; s0; s1] 0) with (Some t).
  change (rd [t; 0; k0; k1; i0; i1; s0; s1] 1) with (Some 0). cbv iota beta.
  replace (((t =? 14) || (t =? 13)) && (0 =? 0)) with true by (destruct T as [-> | ->]; reflexivity).
  rewrite read_exact_app by reflexivity.
  change ([t; 0; k0; k1; i0; i1; s0; s1] ++ [o0; o1; o2; o3; r0; r1; r2; r3; t0; t1; t2; t3])
    with [t; 0; k0; k1; i0; i1; s0; s1; o0; o1; o2; o3; r0; r1; r2; r3; t0; t1; t2; t3].
  rewrite icmp4_header_20 by exact T. reflexivity.
Qed.

Lemma re_zero_eq ck t c :
  icmp4_re_zero (u16_to_be ck) t c = Some [t; c; (ck / 256) mod 256; ck mod 256; 0; 0; 0; 0].
Proof. reflexivity. Qed.
Lemma re_2u16_eq ck t c a b :
  icmp4_re_2u16 (u16_to_be ck) t c a b =
  Some [t; c; (ck / 256) mod 256; ck mod 256; (a / 256) mod 256; a mod 256; (b / 256) mod 256; b mod 256].
Proof. reflexivity. Qed.
Lemma re_4u8_eq ck t c x0 x1 x2 x3 :
  icmp4_re_4u8 (u16_to_be ck) t c [x0; x1; x2; x3] = Some [t; c; (ck / 256) mod 256; ck mod 256; x0; x1; x2; x3].
Proof. reflexivity. Qed.
Lemma re_ts_eq ck t m :
  icmp4_re_timestamp_msg (u16_to_be ck) t m =
  Some ([t; 0; (ck / 256) mod 256; ck mod 256] ++ u16_to_be (ts_id m) ++ u16_to_be (ts_seq m)
        ++ u32_to_be (ts_originate m) ++ u32_to_be (ts_receive m) ++ u32_to_be (ts_transmit m)).
Proof. reflexivity. Qed.

Theorem icmp4_ser_agree h out :
  exists e, icmp4_to_bytes h = Some e /\ icmp4_write out h = Some (out ++ e) /\ len e = icmp4_header_len h.
Proof.
  assert (X : exists e, icmp4_to_bytes h = Some e /\ len e = icmp4_header_len h).
  { destruct h as [ty ck]. unfold icmp4_to_bytes, icmp4_header_len. cbn [icmp4_type icmp4_checksum].
    destruct ty as [t c b4 b5 b6 b7 | id seq | d | code g0 g1 g2 g3 | id seq | code | p | m | m];
      try destruct d; try destruct p; cbn [u16_to_be icmp4_type_header_len];
      rewrite ?re_zero_eq, ?re_2u16_eq, ?re_4u8_eq, ?re_ts_eq; eexists; split; reflexivity. }
  destruct X as (e & E & L). exists e. unfold icmp4_write. rewrite E. repeat split; assumption.
Qed.

Ltac of_bytes_red :=
  lazy [icmp4_of_bytes icmp4_table lookup N.eqb Pos.eqb andb du redirect4 u16_at byte_at nth
        N.to_nat Pos.to_nat Pos.iter_op Nat.add Init.Nat.add N.add Pos.add Pos.succ].

(* a value of an 8-octet kind, given by the octets that decode to it: these octets are its
   encoding and decode back with any remainder *)
Lemma dec_enc_8 ty ck t c x4 x5 x6 x7 :
  ck < 65536 -> t < 256 -> c < 256 -> x4 < 256 -> x5 < 256 -> x6 < 256 -> x7 < 256 ->
  lookup t c icmp4_fixed_table = None -> icmp4_of_bytes t c x4 x5 x6 x7 = ty ->
  exists e, Some [t; c; (ck / 256) mod 256; ck mod 256; x4; x5; x6; x7] = Some e /\
    len e = icmp4_type_header_len ty /\ bytes_ok e /\
    (forall rest, icmp4_read (e ++ rest) = Ok ({| icmp4_type := ty; icmp4_checksum := ck |}, rest)) /\
    (forall rest, icmp4_type_header_len ty = 8 \/ rest = [] ->
       icmp4_from_slice (e ++ rest) = Ok ({| icmp4_type := ty; icmp4_checksum := ck |}, rest)).
Proof.
  intros Hck Ht Hc H4 H5 H6 H7 LF <-. eexists. split; [reflexivity|].
  split; [rewrite icmp4_of_bytes_hl; reflexivity|].
  split.
  { repeat (apply bytes_ok_explicit_cons; [first [assumption | apply mod256_lt]|]). constructor. }
  split; intros rest; cbn [app].
  - rewrite icmp4_read_8 by exact LF. rewrite (u16_be_roundtrip _ Hck). reflexivity.
  - intros _. rewrite icmp4_from_slice_8 by exact LF. rewrite (u16_be_roundtrip _ Hck). reflexivity.
Qed.

Lemma wf_icmp4_ts_facts m : wf_icmp4_ts m = true ->
  ts_id m < 65536 /\ ts_seq m < 65536 /\ ts_originate m < 4294967296 /\ ts_receive m < 4294967296
  /\ ts_transmit m < 4294967296.
Proof. unfold wf_icmp4_ts. intros W. bsplit W. repeat split; assumption. Qed.

(* timestamp / timestamp reply: from_slice wants exactly the 20 octets *)
Lemma dec_enc_20 (t : N) (mk : TimestampMessage -> Icmpv4Type) ck m :
  (t = 13 \/ t = 14) -> icmp4_ts_mk t = mk -> ck < 65536 -> wf_icmp4_ts m = true ->
  exists e, icmp4_re_timestamp_msg (u16_to_be ck) t m = Some e /\
    len e = icmp4_type_header_len (mk m) /\ bytes_ok e /\
    (forall rest, icmp4_read (e ++ rest) = Ok ({| icmp4_type := mk m; icmp4_checksum := ck |}, rest)) /\
    (forall rest, icmp4_type_header_len (mk m) = 8 \/ rest = [] ->
       icmp4_from_slice (e ++ rest) = Ok ({| icmp4_type := mk m; icmp4_checksum := ck |}, rest)).
Proof.
  intros T MK Hck W. destruct (wf_icmp4_ts_facts m W) as (R1 & R2 & R3 & R4 & R5).
  rewrite re_ts_eq. eexists. split; [reflexivity|]. subst mk.
  split; [destruct T as [-> | ->]; reflexivity|]. split.
  { apply bytes_ok_explicit_cons; [destruct T as [-> | ->]; lia|].
    apply bytes_ok_explicit_cons; [lia|].
    apply bytes_ok_explicit_cons; [apply mod256_lt|].
    apply bytes_ok_explicit_cons; [apply mod256_lt|].
    repeat (apply bytes_ok_app; split); first [apply bytes_ok_u16_to_be | apply bytes_ok_u32_to_be]. }
  unfold u16_to_be, u32_to_be. cbn [app]. split; intros rest.
  - change (?a :: ?b :: ?c :: ?d :: ?e :: ?f :: ?g :: ?h :: ?i :: ?j :: ?k :: ?l :: ?m' :: ?n :: ?o
            :: ?p :: ?q :: ?r :: ?s :: ?u :: rest)
      with ([a; b; c; d; e; f; g; h; i; j; k; l; m'; n; o; p; q; r; s; u] ++ rest).
    rewrite icmp4_read_20 by exact T.
    rewrite !u16_be_roundtrip, !u32_be_roundtrip by assumption. destruct m. reflexivity.
  - intros [X | ->]; [exfalso; destruct T as [-> | ->]; discriminate X|].
    rewrite icmp4_from_slice_20 by exact T.
    rewrite !u16_be_roundtrip, !u32_be_roundtrip by assumption. destruct m. reflexivity.
Qed.

Ltac fin8 := apply dec_enc_8;
    try lia; try apply mod256_lt; try assumption; try reflexivity;
    of_bytes_red; rewrite ?u16_be_roundtrip by assumption; reflexivity.

(* every well-formed value: read returns the value and any remainder; from_slice
   returns it with any remainder for the 8-byte messages, and with the empty
   remainder for timestamp / timestamp reply (Icmpv4Slice::from_slice wants
   EXACTLY 20 bytes for those, see icmp4_timestamp_trailing_rejected) *)
Theorem icmp4_dec_enc h : wf_icmp4 h = true ->
  exists e, icmp4_to_bytes h = Some e /\ len e = icmp4_header_len h /\ bytes_ok e /\
    (forall rest, icmp4_read (e ++ rest) = Ok (h, rest)) /\
    (forall rest, icmp4_header_len h = 8 \/ rest = [] -> icmp4_from_slice (e ++ rest) = Ok (h, rest)).
Proof.
  destruct h as [ty ck]. unfold wf_icmp4. cbn [icmp4_type icmp4_checksum]. intros W.
  apply andb_true_iff in W. destruct W as [WT WC]. apply N.ltb_lt in WC.
  unfold icmp4_to_bytes, icmp4_header_len. cbn [icmp4_type icmp4_checksum].
  destruct ty as [t c b4 b5 b6 b7 | id seq | d | code g0 g1 g2 g3 | id seq | code | p | m | m].
  - (* Unknown *)
    cbn [wf_icmp4_type] in WT. bsplit WT. rewrite re_4u8_eq.
    match goal with H : negb (icmp4_typed t c) = true |- _ => rename H into WN end.
    unfold icmp4_typed in WN.
    destruct (lookup t c icmp4_table) eqn:LT; [cbn [negb] in WN; discriminate|].
    destruct (lookup t c icmp4_fixed_table) eqn:LF; [cbn [negb] in WN; discriminate|].
    apply dec_enc_8; try assumption. unfold icmp4_of_bytes. rewrite LT. reflexivity.
  - (* EchoReply *)
    cbn [wf_icmp4_type] in WT. bsplit WT. rewrite re_2u16_eq. fin8.
  - (* DestinationUnreachable *)
    destruct d; cbn [wf_icmp4_type] in WT; bsplit WT;
      try (change (u16_to_be next_hop_mtu) with [(next_hop_mtu / 256) mod 256; next_hop_mtu mod 256]; cbv iota beta);
      rewrite ?re_zero_eq, ?re_4u8_eq; fin8.
  - (* Redirect *)
    cbn [wf_icmp4_type] in WT. bsplit WT. rewrite re_4u8_eq.
    destruct code; cbn [icmp4_redirect_code_u8]; fin8.
  - (* EchoRequest *)
    cbn [wf_icmp4_type] in WT. bsplit WT. rewrite re_2u16_eq. fin8.
  - (* TimeExceeded *)
    rewrite re_zero_eq. destruct code; cbn [icmp4_time_exceeded_code_u8]; fin8.
  - (* ParameterProblem *)
    destruct p; cbn [wf_icmp4_type] in WT; bsplit WT; rewrite ?re_zero_eq, ?re_4u8_eq; fin8.
  - apply (dec_enc_20 13 V4TimestampRequest); auto.
  - apply (dec_enc_20 14 V4TimestampReply); auto.
Qed.

(* raw pairs: nothing is normalised.  The mask drops octets only for type 3 with code <= 15,
   type 11 with code <= 1 and type 12 with code <= 2, and the table lists all of those. *)
Lemma raw_mask t c : lookup t c icmp4_table = None -> icmp4_keep_mask t c 8 = ones 8.
Proof.
  intros LT. unfold icmp4_keep_mask.
  rewrite (unlisted_upto _ t c LT 3 15), (unlisted_upto _ t c LT 11 1), (unlisted_upto _ t c LT 12 2)
    by reflexivity.
  reflexivity.
Qed.

Ltac mask_compute :=
  match goal with
  | |- context [icmp4_keep_mask ?t ?c ?n] =>
    let m := eval vm_compute in (icmp4_keep_mask t c n) in change (icmp4_keep_mask t c n) with m
  end.

Lemma enc_dec_8 t c k0 k1 b4 b5 b6 b7 :
  t < 256 -> c < 256 -> k0 < 256 -> k1 < 256 -> b4 < 256 -> b5 < 256 -> b6 < 256 -> b7 < 256 ->
  lookup t c icmp4_fixed_table = None ->
  let h := {| icmp4_type := icmp4_of_bytes t c b4 b5 b6 b7; icmp4_checksum := be16 k0 k1 |} in
  wf_icmp4 h = true /\
  icmp4_to_bytes h = Some (masked (icmp4_keep_mask t c 8) [t; c; k0; k1; b4; b5; b6; b7]).
Proof.
  intros Ht Hc H0 H1 H4 H5 H6 H7 LF h. subst h.
  pose proof (be16_bound k0 k1 H0 H1) as CK. apply N.ltb_lt in CK.
  unfold wf_icmp4, icmp4_to_bytes. cbn [icmp4_type icmp4_checksum]. rewrite CK, andb_true_r.
  destruct (lookup t c icmp4_table) as [f|] eqn:LT.
  - unfold icmp4_table in LT. cbn [lookup] in LT. split_table LT.
    all: match goal with E : (_ =? ?t') && (_ =? ?c') = true |- _ =>
           apply andb_true_iff in E; destruct E as [E1 E2]; apply N.eqb_eq in E1, E2; subst t' c' end.
    all: clear LT LF Ht Hc.
    all: of_bytes_red; cbn [wf_icmp4_type icmp4_redirect_code_u8 icmp4_time_exceeded_code_u8].
    all: mask_compute; cbn [masked].
    all: rewrite ?re_zero_eq, ?re_2u16_eq, ?re_4u8_eq.
    all: try (rewrite (u16_to_be_be16 b6 b7 H6 H7); cbv iota beta; rewrite ?re_4u8_eq).
    all: rewrite ?be16_hi, ?be16_lo, ?land_255, ?N.land_0_r by (first [assumption | lia]).
    all: split; [|reflexivity].
    all: try reflexivity.
    all: try (pose proof (be16_bound b4 b5 H4 H5) as X1; pose proof (be16_bound b6 b7 H6 H7) as X2;
              apply N.ltb_lt in X1, X2; rewrite ?X1, ?X2; reflexivity).
    all: try (apply N.ltb_lt in H4, H5, H6, H7; rewrite ?H4, ?H5, ?H6, ?H7; reflexivity).
  - unfold icmp4_of_bytes. rewrite LT. cbn [wf_icmp4_type]. unfold icmp4_typed. rewrite LT, LF.
    rewrite re_4u8_eq, (raw_mask t c LT).
    change (ones 8) with [255; 255; 255; 255; 255; 255; 255; 255]. cbn [masked].
    rewrite ?be16_hi, ?be16_lo, ?land_255 by assumption.
    apply N.ltb_lt in Ht, Hc, H4, H5, H6, H7. rewrite Ht, Hc, H4, H5, H6, H7. split; reflexivity.
Qed.

Lemma icmp4_ts_mk_13 : icmp4_ts_mk 13 = V4TimestampRequest. Proof. reflexivity. Qed.
Lemma icmp4_ts_mk_14 : icmp4_ts_mk 14 = V4TimestampReply. Proof. reflexivity. Qed.

Lemma fixed_table_cases t c v : lookup t c icmp4_fixed_table = Some v -> (t = 13 \/ t = 14) /\ c = 0.
Proof.
  unfold icmp4_fixed_table. cbn [lookup]. intros H.
  destruct ((13 =? t) && (0 =? c)) eqn:E1.
  { apply andb_true_iff in E1. destruct E1 as [A B]. apply N.eqb_eq in A, B. auto. }
  destruct ((14 =? t) && (0 =? c)) eqn:E2.
  { apply andb_true_iff in E2. destruct E2 as [A B]. apply N.eqb_eq in A, B. auto. }
  discriminate.
Qed.

Lemma len_ge_cons12 (bs : bytes) : len bs = 12 ->
  exists a b c d e f g h i j k l, bs = [a; b; c; d; e; f; g; h; i; j; k; l].
Proof.
  intros H.
  do 12 (destruct bs as [|? bs]; [len_absurd H|]).
  destruct bs; [|len_absurd H]. repeat eexists.
Qed.

(* from_slice on eight or more octets: timestamp / timestamp reply (code 0) want exactly twelve
   more, every other pair is an 8-octet kind *)
Lemma icmp4_from_slice_cases t c k0 k1 b4 b5 b6 b7 r :
  ((t = 13 \/ t = 14) /\ c = 0 /\
   ((exists o0 o1 o2 o3 r0 r1 r2 r3 t0 t1 t2 t3, r = [o0; o1; o2; o3; r0; r1; r2; r3; t0; t1; t2; t3])
    \/ icmp4_from_slice (t :: c :: k0 :: k1 :: b4 :: b5 :: b6 :: b7 :: r) = Err ELen))
  \/ lookup t c icmp4_fixed_table = None.
Proof.
  destruct (lookup t c icmp4_fixed_table) as [[[n lay] mk]|] eqn:LF; [left|right; reflexivity].
  destruct (fixed_table_cases _ _ _ LF) as [T ->]. split; [exact T|]. split; [reflexivity|].
  destruct (N.eq_dec (len r) 12) as [L|L]; [left; exact (len_ge_cons12 r L)|right].
  pose proof (icmp4_cases t 0 k0 k1 b4 b5 b6 b7 r) as C. cbv zeta in C. rewrite LF in C.
  destruct C as (_ & _ & Hf & _). unfold icmp4_from_slice. rewrite Hf, len8.
  replace (8 + len r <? 8) with false by (symmetry; apply N.ltb_ge; lia).
  replace (8 + len r =? 20) with false by (symmetry; apply N.eqb_neq; lia). reflexivity.
Qed.

(* every accepted byte string: the value is well-formed, re-encoding reproduces the
   consumed bytes outside icmp4_keep_mask (the "unused" words of destination
   unreachable / time exceeded / parameter problem), decoding again gives the same
   value, and read agrees with from_slice *)
Theorem icmp4_enc_dec bs h rest : bytes_ok bs -> icmp4_from_slice bs = Ok (h, rest) ->
  wf_icmp4 h = true /\ bs = take (icmp4_header_len h) bs ++ rest /\
  exists e t c, icmp4_to_bytes h = Some e /\ rd bs 0 = Some t /\ rd bs 1 = Some c /\
    agree (icmp4_keep_mask t c (icmp4_header_len h)) e (take (icmp4_header_len h) bs) /\
    icmp4_from_slice e = Ok (h, []) /\ icmp4_read bs = Ok (h, rest).
Proof.
  intros OK H.
  destruct (len bs <? 8) eqn:E8.
  { unfold icmp4_from_slice, Icmpv4Slice.from_slice, Icmpv4Slice.MIN_LEN in H. rewrite E8 in H. discriminate. }
  destruct (len_ge_cons8 bs E8) as (t & c & k0 & k1 & b4 & b5 & b6 & b7 & r & ->).
  pose proof OK as OK'. bytes_ok_split OK'.
  destruct (icmp4_from_slice_cases t c k0 k1 b4 b5 b6 b7 r)
    as [(T & -> & [(o0 & o1 & o2 & o3 & r0 & r1 & r2 & r3 & t0 & t1 & t2 & t3 & ->)|E])|LF];
    [|rewrite E in H; discriminate H|].
  - (* timestamp / timestamp reply *)
    rewrite icmp4_from_slice_20 in H by exact T.
    apply Ok_inj in H. apply pair_equal_spec in H. destruct H as [<- <-].
    bytes_ok_split OK'.
    set (bs := [t; 0; k0; k1; b4; b5; b6; b7; o0; o1; o2; o3; r0; r1; r2; r3; t0; t1; t2; t3]) in *.
    assert (HL : icmp4_header_len
                   {| icmp4_type := icmp4_ts_mk t (mkTimestamp (be16 b4 b5) (be16 b6 b7) (be32 o0 o1 o2 o3)
                                                     (be32 r0 r1 r2 r3) (be32 t0 t1 t2 t3));
                      icmp4_checksum := be16 k0 k1 |} = 20).
    { destruct T as [-> | ->]; reflexivity. }
    rewrite HL. change (take 20 bs) with bs.
    assert (TB : icmp4_to_bytes
                   {| icmp4_type := icmp4_ts_mk t (mkTimestamp (be16 b4 b5) (be16 b6 b7) (be32 o0 o1 o2 o3)
                                                     (be32 r0 r1 r2 r3) (be32 t0 t1 t2 t3));
                      icmp4_checksum := be16 k0 k1 |} = Some bs).
    { unfold icmp4_to_bytes. cbn [icmp4_type icmp4_checksum].
      destruct T as [-> | ->]; rewrite ?icmp4_ts_mk_13, ?icmp4_ts_mk_14; rewrite re_ts_eq; cbn [ts_id ts_seq ts_originate ts_receive ts_transmit];
        rewrite !u16_to_be_be16, !u32_to_be_be32, be16_hi, be16_lo by assumption; reflexivity. }
    split.
    { unfold wf_icmp4. cbn [icmp4_type icmp4_checksum].
      pose proof (be16_bound k0 k1 B1 B2) as X0. pose proof (be16_bound b4 b5 B3 B4) as X1.
      pose proof (be16_bound b6 b7 B5 B6) as X2. pose proof (be32_bound o0 o1 o2 o3 B7 B8 B9 B10) as X3.
      pose proof (be32_bound r0 r1 r2 r3 B11 B12 B13 B14) as X4.
      pose proof (be32_bound t0 t1 t2 t3 B15 B16 B17 B18) as X5.
      apply N.ltb_lt in X0, X1, X2, X3, X4, X5.
      destruct T as [-> | ->]; rewrite ?icmp4_ts_mk_13, ?icmp4_ts_mk_14; cbn [wf_icmp4_type]; unfold wf_icmp4_ts; cbn [ts_id ts_seq ts_originate ts_receive ts_transmit];
        rewrite X0, X1, X2, X3, X4, X5; reflexivity. }
    split; [symmetry; apply app_nil_r|].
    exists bs, t, 0. split; [exact TB|]. split; [reflexivity|]. split; [reflexivity|].
    split.
    { replace (icmp4_keep_mask t 0 20) with (ones (len bs)) by (destruct T as [-> | ->]; reflexivity).
      apply agree_ones_refl. exact OK. }
    split.
    + apply icmp4_from_slice_20. exact T.
    + rewrite <- (app_nil_r bs). apply icmp4_read_20. exact T.
  - rewrite icmp4_from_slice_8 in H by exact LF.
    apply Ok_inj in H. apply pair_equal_spec in H. destruct H as [<- <-].
    unfold icmp4_header_len. cbn [icmp4_type]. rewrite icmp4_of_bytes_hl.
    change (take 8 (t :: c :: k0 :: k1 :: b4 :: b5 :: b6 :: b7 :: r)) with [t; c; k0; k1; b4; b5; b6; b7].
    destruct (enc_dec_8 t c k0 k1 b4 b5 b6 b7 B B0 B1 B2 B3 B4 B5 B6 LF) as [WF TB]. cbv zeta in WF, TB.
    split; [exact WF|]. split; [reflexivity|].
    eexists. exists t, c. split; [exact TB|]. split; [reflexivity|]. split; [reflexivity|].
    split.
    { apply agree_of_masked; [|reflexivity].
      unfold icmp4_keep_mask. change (ones (8 - 8)) with (@nil N).
      destruct ((t =? 3) && (c <=? 15)), (c =? 4), ((t =? 11) && (c <=? 1)), ((t =? 12) && (c <=? 2)), (c =? 0);
        reflexivity. }
    split.
    + destruct (icmp4_dec_enc _ WF) as (e & TB' & _ & _ & _ & F).
      rewrite TB in TB'. apply Some_inj in TB'. rewrite TB'.
      specialize (F [] (or_intror eq_refl)). rewrite app_nil_r in F. exact F.
    + apply icmp4_read_8. exact LF.
Qed.

(* from_slice needs EXACTLY 20 bytes for timestamp messages: the encoding followed
   by one more byte is rejected (read accepts it) *)
Example icmp4_timestamp_trailing_rejected :
  let h := {| icmp4_type := V4TimestampRequest (mkTimestamp 1 2 3 4 5); icmp4_checksum := 6 |} in
  exists e, icmp4_to_bytes h = Some e /\ icmp4_from_slice (e ++ [0]) = Err ELen
            /\ icmp4_read (e ++ [0]) = Ok (h, [0]).
Proof. eexists. split; [reflexivity|]. split; reflexivity. Qed.

(* the encoder against the RFC 792 tables of CtlMsg/Spec.v: the independent decoder
   `icmp4` (table lookup by type and code, fields at the RFC offsets) accepts what
   from_slice accepts with the same answer, hence reads every well-formed value back
   from its encoding *)
Lemma icmp4_from_slice_spec bs h rest : icmp4_from_slice bs = Ok (h, rest) ->
  icmp4 bs = CtlMsg.Spec.Ok (icmp4_type h, icmp4_header_len h, rest).
Proof.
  intros H.
  destruct (len bs <? 8) eqn:E8.
  { unfold icmp4_from_slice, Icmpv4Slice.from_slice, Icmpv4Slice.MIN_LEN in H. rewrite E8 in H. discriminate. }
  destruct (len_ge_cons8 bs E8) as (t & c & k0 & k1 & b4 & b5 & b6 & b7 & r & ->).
  destruct (icmp4_from_slice_cases t c k0 k1 b4 b5 b6 b7 r)
    as [(T & -> & [(o0 & o1 & o2 & o3 & r0 & r1 & r2 & r3 & t0 & t1 & t2 & t3 & ->)|E])|LF];
    [|rewrite E in H; discriminate H|].
  - rewrite icmp4_from_slice_20 in H by exact T.
    apply Ok_inj in H. apply pair_equal_spec in H. destruct H as [<- <-].
    destruct T as [-> | ->]; reflexivity.
  - rewrite icmp4_from_slice_8 in H by exact LF.
    apply Ok_inj in H. apply pair_equal_spec in H. destruct H as [<- <-].
    unfold icmp4_header_len. cbn [icmp4_type]. rewrite icmp4_of_bytes_hl.
    unfold icmp4. rewrite E8.
    change (byte_at (t :: c :: k0 :: k1 :: b4 :: b5 :: b6 :: b7 :: r) 0) with t.
    change (byte_at (t :: c :: k0 :: k1 :: b4 :: b5 :: b6 :: b7 :: r) 1) with c.
    change (byte_at (t :: c :: k0 :: k1 :: b4 :: b5 :: b6 :: b7 :: r) 4) with b4.
    change (byte_at (t :: c :: k0 :: k1 :: b4 :: b5 :: b6 :: b7 :: r) 5) with b5.
    change (byte_at (t :: c :: k0 :: k1 :: b4 :: b5 :: b6 :: b7 :: r) 6) with b6.
    change (byte_at (t :: c :: k0 :: k1 :: b4 :: b5 :: b6 :: b7 :: r) 7) with b7.
    cbv zeta. rewrite LF. rewrite <- (spec4_of_bytes t c k0 k1 b4 b5 b6 b7 r).
    destruct (lookup t c icmp4_table) as [f|]; reflexivity.
Qed.

Theorem icmp4_spec h : wf_icmp4 h = true ->
  exists e, icmp4_to_bytes h = Some e /\
    icmp4 e = CtlMsg.Spec.Ok (icmp4_type h, icmp4_header_len h, []).
Proof.
  intros W. destruct (icmp4_dec_enc h W) as (e & TB & L & _ & _ & F).
  exists e. split; [exact TB|].
  specialize (F [] (or_intror eq_refl)). rewrite app_nil_r in F.
  apply icmp4_from_slice_spec. exact F.
Qed.
