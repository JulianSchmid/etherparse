(* Roundtrip/Exts6Proofs.v -- C08 for Ipv6Extensions, stated on the model of property C12
   (ExtChain/Model.v: Exts6, from_slice, write, next_header, header_len).  C12 proves
   decode(write e) = e for an empty remainder (C12_decode_write) and len(write e) = header_len e;
   with the framing of the decoder (Exts6Readers.v) that is the round trip with any trailing bytes, and
   the lock step of decoder and writer (Exts6Mask.v) gives decode -> encode up to reserved bits. *)
From EP Require Import Base.Bytes ExtChain.Spec ExtChain.Model ExtChain.View ExtChain.Proofs.
From EP Require Export Roundtrip.Exts6Readers.
From EP Require Import Roundtrip.Exts6Mask.
From EP Require Roundtrip.CommonProofs.
From Coq Require Import ZArith Lia ZifyN.
Local Open Scope N_scope.

Lemma take_app_le {A} (a b : list A) n : n <= len a -> take n (a ++ b) = take n a.
Proof. apply CommonProofs.take_app_le. Qed.
Lemma drop_app_le {A} (a b : list A) n : n <= len a -> drop n (a ++ b) = drop n a ++ b.
Proof. apply CommonProofs.drop_app_le. Qed.
Lemma rd_app_lt (a b : bytes) i : i < len a -> rd (a ++ b) i = rd a i.
Proof. apply CommonProofs.rd_app_lt. Qed.
(* C08 decode(encode v ++ rest): every valid extension struct whose chain is consistent (write
   succeeds <-> next_header succeeds, C12_write_iff_walk) and ends on a non-extension number *)
Theorem exts6_dec_enc e first bs n rest : exts6_valid e = true ->
  write e first = (bs, Ok tt) -> next_header e first = Ok n -> is_ext_number n = false ->
  len bs = header_len e /\ from_slice first (bs ++ rest) = Ok (e, n, rest).
Proof.
  intros V W H X. split.
  - exact (write_len e first bs V W).
  - pose proof (decode_write e first bs n V W H X) as D.
    apply (from_slice_frame first bs rest e n []) in D. exact D.
Qed.

(* re-encoded bytes vs consumed bytes: identical except the reserved byte 1 and bits 1-2 of
   byte 3 of a fragment header and the reserved bytes 2-3 of an authentication header *)
Inductive hdr_eq : bytes -> bytes -> Prop :=
| he_nil : hdr_eq [] []
| he_same : forall a x y, hdr_eq x y -> hdr_eq (a ++ x) (a ++ y)
| he_frag : forall b0 b1 b2 b3 b4 b5 b6 b7 x y, hdr_eq x y ->
    hdr_eq ([b0; 0; b2; N.land b3 249; b4; b5; b6; b7] ++ x) ([b0; b1; b2; b3; b4; b5; b6; b7] ++ y)
| he_auth : forall b0 b1 b2 b3 body x y, hdr_eq x y ->
    hdr_eq (([b0; b1; 0; 0] ++ body) ++ x) (([b0; b1; b2; b3] ++ body) ++ y).

Lemma hdr_eq_len a b : hdr_eq a b -> len a = len b.
Proof.
  induction 1; [reflexivity| | |]; rewrite ?len_app, ?len_cons in *; lia.
Qed.

Definition no_flags : Flags := mkFlags false false false false false false.

Lemma check_all_done_none {A} (a : A) : check_all_done no_flags a = Ok a.
Proof. reflexivity. Qed.

(* the chunk relation of Exts6Mask.v read as hdr_eq *)
Lemma parts_rel_hdr_eq ps : forall c, parts_rel ps c -> hdr_eq (parts_bytes ps) c.
Proof.
  induction ps as [|p ps IH]; intros c R; cbn [parts_rel] in R.
  - subst c. constructor.
  - destruct R as (c1 & c2 & -> & R1 & R2). rewrite parts_bytes_cons. specialize (IH c2 R2).
    destruct p as [h|h|h]; cbn [part_rel part_bytes] in *.
    + subst c1. apply he_same, IH.
    + destruct R1 as (b0 & b1 & b2 & b3 & b4 & b5 & b6 & b7 & -> & TB). rewrite TB. apply he_frag, IH.
    + destruct R1 as (b0 & b1 & b2 & b3 & body & -> & TB). rewrite TB. apply he_auth, IH.
Qed.

(* C08 decode -> encode for Ipv6Extensions: every accepted byte string (also chains on which the
   decoder stops early because a header kind repeats) *)
Theorem exts6_enc_dec first bs e n r : bytes_ok bs -> from_slice first bs = Ok (e, n, r) ->
  exts6_valid e = true /\
  exists bs' cons, write e first = (bs', Ok tt) /\ next_header e first = Ok n
    /\ bs = cons ++ r /\ hdr_eq bs' cons /\ len bs' = header_len e
    /\ forall t, from_slice first (bs' ++ t) = Ok (e, n, t).
Proof.
  intros OK H. destruct (exts6_enc_dec_parts first bs e n r OK H) as (V & cons & EW & NH & SP & P & RE).
  split; [exact V|]. exists (parts_bytes (x6_chain e first)), cons.
  split; [exact EW|]. split; [exact NH|]. split; [exact SP|]. split; [apply parts_rel_hdr_eq, P|].
  split; [exact (write_len e first _ V EW)|exact RE].
Qed.
