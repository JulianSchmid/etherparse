(* Ipv4Header::write against to_bytes with the range of the computed checksum proved
   (Ipv4Proofs.ip4_write_recomputes assumes `ck < 65536`; the bound is iph_calc_checksum_some);
   Ipv6Extensions decode(encode) together with the reader of ExtChain/ReadModel.v;
   UdpHeader::from_bytes on an encoding. *)
From EP Require Import Base.Bytes Checksum.Model Roundtrip.Common Roundtrip.CommonProofs Roundtrip.Ipv4 Roundtrip.Ipv4Proofs
  Roundtrip.IpHeadersProofs Roundtrip.Udp Roundtrip.UdpProofs.
From EP Require IoFault.Spec IoFault.Model ExtChain.Spec ExtChain.Model ExtChain.ReadModel ExtChain.ReadProofs
  Roundtrip.Exts6Proofs.
From Coq Require Import ZArith Lia ZifyN.
Local Open Scope N_scope.

Theorem ip4_write_recomputes_full e h out : wf_ip4 h = true ->
  exists ck b, ip4_calc_checksum e h = Some ck /\ ck < 65536
    /\ ip4_to_bytes (ip4_set_checksum h ck) = Some b /\ ip4_write e out h = Some (out ++ b)
    /\ len b = ip4_header_len h
    /\ (i4_header_checksum h = ck -> ip4_to_bytes h = Some b).
Proof. exact (ip4_write_checksummed e h out). Qed.

(* Ipv6Extensions: every valid struct whose chain walks to a non-extension number; any bytes behind *)
Theorem exts6_dec_enc_read e first bs n rest : ExtChain.Model.exts6_valid e = true ->
  ExtChain.Model.write e first = (bs, ExtChain.Model.Ok tt) -> ExtChain.Model.next_header e first = ExtChain.Model.Ok n ->
  ExtChain.Spec.is_ext_number n = false -> bytes_ok rest ->
  len bs = ExtChain.Model.header_len e /\
  ExtChain.Model.from_slice first (bs ++ rest) = ExtChain.Model.Ok (e, n, rest) /\
  exists s', ExtChain.ReadModel.read6 false first (IoFault.Model.mk_rstate (ExtChain.ReadModel.cursor (bs ++ rest)) None)
             = (IoFault.Model.QOk (e, n), IoFault.Model.mk_rstate s' None)
             /\ IoFault.Spec.src_data s' = rest /\ IoFault.Spec.src_pulled s' = len bs.
Proof.
  intros V W H X BR. destruct (Exts6Proofs.exts6_dec_enc e first bs n rest V W H X) as [L FS].
  split; [exact L|]. split; [exact FS|].
  assert (BB : bytes_ok bs).
  { pose proof (ExtChain.Proofs.write_bytes_ok e first V) as B. rewrite W in B. exact B. }
  destruct (ExtChain.ReadProofs.read6_cursor first (bs ++ rest) e n rest
              (proj2 (bytes_ok_app bs rest) (conj BB BR)) FS) as (s' & R & D & P).
  exists s'. split; [exact R|]. split; [exact D|]. rewrite len_app in P. lia.
Qed.

Theorem udp_from_bytes_dec_enc h : wf_udp h = true -> udp_from_bytes (udp_to_bytes h) = Ok h.
Proof. exact (udp_from_bytes_enc h). Qed.
