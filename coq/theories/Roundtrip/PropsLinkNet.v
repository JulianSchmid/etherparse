(* Roundtrip/PropsLinkNet.v -- test vectors for property C08, link / network layer
   types: MacsecHeader, IpAuthHeader, Ipv6RawExtHeader, Ipv6Header, Ethernet2Header,
   SingleVlanHeader, LinuxSllHeader, ArpPacket / ArpEthIpv4Packet, Ipv4Extensions,
   Ipv6Extensions.  One module per type: sample values (extreme fields, stale buffer
   bytes, reserved bits set in the input, values that are not well-formed) with their
   bytes and decodings, checked by evaluation; they show that the hypotheses of the
   theorems of Props/C08.v (module LINKNET) can be met and what the excluded cases do. *)
From EP Require Import Base.Bytes Roundtrip.Common Roundtrip.Spec Roundtrip.SpecLinkNet.
From EP Require Roundtrip.Macsec Roundtrip.MacsecProofs.
From EP Require Roundtrip.Auth Roundtrip.AuthProofs Roundtrip.RawExt Roundtrip.RawExtProofs.
From EP Require Roundtrip.Ipv6 Roundtrip.Ipv6Proofs.
From EP Require Roundtrip.Eth Roundtrip.EthProofs Roundtrip.Vlan Roundtrip.VlanProofs.
From EP Require Roundtrip.Sll Roundtrip.SllProofs Roundtrip.Arp Roundtrip.ArpProofs.
From EP Require Roundtrip.Exts4 Roundtrip.Exts4Proofs.
From EP Require ExtChain.Spec ExtChain.Model ExtChain.Proofs Roundtrip.Exts6Proofs.
Local Open Scope N_scope.

(* ------------------------------------------------------------------ MacsecHeader *)
Module MACSEC.
Import Roundtrip.Macsec Roundtrip.MacsecProofs.

Definition ex_max : MacsecHeader :=
  {| mac_ptype := MacUnmodified 65535; mac_endstation_id := true; mac_scb := true; mac_an := 3;
     mac_short_len := 63; mac_packet_nr := 4294967295; mac_sci := Some 18446744073709551615 |}.
Definition ex_min : MacsecHeader :=
  {| mac_ptype := MacEncrypted; mac_endstation_id := false; mac_scb := false; mac_an := 0;
     mac_short_len := 1; mac_packet_nr := 1; mac_sci := None |}.
(* the refuted witness: in range, Unmodified + short_len 1 *)
Definition ex_excluded : MacsecHeader :=
  {| mac_ptype := MacUnmodified 2048; mac_endstation_id := false; mac_scb := false; mac_an := 0;
     mac_short_len := 1; mac_packet_nr := 7; mac_sci := None |}.
Example C08_Macsec_ex_wf : wf_mac ex_max = true /\ wf_mac ex_min = true
  /\ mac_in_range ex_excluded = true /\ wf_mac ex_excluded = false.
Proof. repeat split; vm_compute; reflexivity. Qed.
Example C08_Macsec_ex_bytes : mac_to_bytes ex_max =
  Some [115; 63; 255; 255; 255; 255; 255; 255; 255; 255; 255; 255; 255; 255; 255; 255]
  /\ mac_to_bytes ex_min = Some [12; 1; 0; 0; 0; 1].
Proof. split; vm_compute; reflexivity. Qed.
Example C08_Macsec_excluded_refuted : exists h e, mac_in_range h = true /\ mac_to_bytes h = Some e
  /\ mac_from_slice e = Err (EContent 1) /\ mac_read e = Err (EContent 1).
Proof. exists ex_excluded, [0; 1; 0; 0; 0; 7; 8; 0]. repeat split; vm_compute; reflexivity. Qed.
(* reserved bits set in the input are dropped: byte 1 = 0xC5 decodes to short_len 5 *)
Example C08_Macsec_ex_dec : mac_from_slice [44; 197; 0; 0; 0; 9; 1; 2; 3; 4; 5; 6; 7; 8; 170] =
  Ok {| mac_ptype := MacEncrypted; mac_endstation_id := false; mac_scb := false; mac_an := 0;
        mac_short_len := 5; mac_packet_nr := 9; mac_sci := Some 72623859790382856 |}.
Proof. vm_compute. reflexivity. Qed.
End MACSEC.

(* ------------------------------------------------------------------ IpAuthHeader *)
Module AUTH.
Import Roundtrip.Auth Roundtrip.AuthProofs.

Definition ex_max : IpAuthHeader :=
  {| ah_next_header := 255; ah_spi := 4294967295; ah_sequence_number := 4294967295;
     ah_raw_icv_len := 254; ah_raw_icv_buffer := repeat 255 1016 |}.
Definition ex_stale : IpAuthHeader :=
  {| ah_next_header := 6; ah_spi := 1; ah_sequence_number := 2;
     ah_raw_icv_len := 1; ah_raw_icv_buffer := [1; 2; 3; 4] ++ repeat 170 1012 |}.
Example C08_Auth_ex_wf : wf_ah ex_max = true /\ wf_ah ex_stale = true.
Proof. split; vm_compute; reflexivity. Qed.
Example C08_Auth_ex_bytes : ah_to_bytes ex_stale = Some [6; 2; 0; 0; 0; 0; 0; 1; 0; 0; 0; 2; 1; 2; 3; 4].
Proof. vm_compute. reflexivity. Qed.
Example C08_Auth_ex_dec : exists h,
  ah_from_slice [6; 2; 171; 205; 0; 0; 0; 1; 0; 0; 0; 2; 1; 2; 3; 4; 9] = Ok (h, [9]) /\ ah_eqb h ex_stale = true.
Proof. eexists. split; [vm_compute; reflexivity|]. vm_compute. reflexivity. Qed.
End AUTH.

(* ------------------------------------------------------------------ Ipv6RawExtHeader *)
Module RAWEXT.
Import Roundtrip.RawExt Roundtrip.RawExtProofs.

Definition ex_max : Ipv6RawExtHeader :=
  {| rx_next_header := 255; rx_header_length := 255; rx_payload_buffer := repeat 255 2046 |}.
Definition ex_stale : Ipv6RawExtHeader :=
  {| rx_next_header := 43; rx_header_length := 0; rx_payload_buffer := [1; 2; 3; 4; 5; 6] ++ repeat 170 2040 |}.
Example C08_RawExt_ex_wf : wf_rx ex_max = true /\ wf_rx ex_stale = true.
Proof. split; vm_compute; reflexivity. Qed.
Example C08_RawExt_ex_bytes : rx_to_bytes ex_stale = Some [43; 0; 1; 2; 3; 4; 5; 6].
Proof. vm_compute. reflexivity. Qed.
Example C08_RawExt_ex_dec : exists h,
  rx_from_slice [43; 0; 1; 2; 3; 4; 5; 6; 9] = Ok (h, [9]) /\ rx_eqb h ex_stale = true.
Proof. eexists. split; [vm_compute; reflexivity|]. vm_compute. reflexivity. Qed.
End RAWEXT.

(* ------------------------------------------------------------------ Ipv6Header *)
Module IPV6.
Import Roundtrip.Ipv6 Roundtrip.Ipv6Proofs.

Definition ex_max : Ipv6Header :=
  {| i6_traffic_class := 255; i6_flow_label := 1048575; i6_payload_length := 65535; i6_next_header := 255;
     i6_hop_limit := 255; i6_source := repeat 255 16; i6_destination := repeat 255 16 |}.
Definition ex_mid : Ipv6Header :=
  {| i6_traffic_class := 165; i6_flow_label := 74565; i6_payload_length := 8; i6_next_header := 17;
     i6_hop_limit := 64; i6_source := repeat 1 16; i6_destination := repeat 2 16 |}.
Example C08_Ipv6_ex_wf : wf_ip6 ex_max = true /\ wf_ip6 ex_mid = true.
Proof. split; vm_compute; reflexivity. Qed.
Example C08_Ipv6_ex_bytes : ip6_to_bytes ex_mid = [106; 81; 35; 69; 0; 8; 17; 64] ++ repeat 1 16 ++ repeat 2 16.
Proof. vm_compute. reflexivity. Qed.
Example C08_Ipv6_ex_dec :
  ip6_from_slice ([106; 81; 35; 69; 0; 8; 17; 64] ++ repeat 1 16 ++ repeat 2 16 ++ [9]) = Ok (ex_mid, [9]).
Proof. vm_compute. reflexivity. Qed.
End IPV6.

(* ------------------------------------------------------------------ Ethernet2Header *)
Module ETH.
Import Roundtrip.Eth Roundtrip.EthProofs.

Definition ex1 : Ethernet2Header :=
  {| eth_source := [1; 2; 3; 4; 5; 6]; eth_destination := [255; 255; 255; 255; 255; 255]; eth_ether_type := 2048 |}.
Example C08_Eth_ex_wf : wf_eth ex1 = true. Proof. vm_compute. reflexivity. Qed.
Example C08_Eth_ex_bytes : eth_to_bytes ex1 = [255; 255; 255; 255; 255; 255; 1; 2; 3; 4; 5; 6; 8; 0].
Proof. vm_compute. reflexivity. Qed.
Example C08_Eth_ex_dec : eth_from_slice [255; 255; 255; 255; 255; 255; 1; 2; 3; 4; 5; 6; 8; 0; 9] = Ok (ex1, [9]).
Proof. vm_compute. reflexivity. Qed.
Example C08_Eth_ex_wts : eth_write_to_slice (repeat 165 16) ex1 =
  Ok ([255; 255; 255; 255; 255; 255; 1; 2; 3; 4; 5; 6; 8; 0; 165; 165], [165; 165]).
Proof. vm_compute. reflexivity. Qed.
End ETH.

(* ------------------------------------------------------------------ SingleVlanHeader *)
Module VLAN.
Import Roundtrip.Vlan Roundtrip.VlanProofs.

Definition ex_max : SingleVlanHeader :=
  {| vl_pcp := 7; vl_drop_eligible_indicator := true; vl_vlan_id := 4095; vl_ether_type := 65535 |}.
Example C08_Vlan_ex_wf : wf_vl ex_max = true. Proof. vm_compute. reflexivity. Qed.
Example C08_Vlan_ex_bytes : vl_to_bytes ex_max = [255; 255; 255; 255]. Proof. vm_compute. reflexivity. Qed.
Example C08_Vlan_ex_dec : vl_from_slice [176; 5; 8; 0; 9] =
  Ok ({| vl_pcp := 5; vl_drop_eligible_indicator := true; vl_vlan_id := 5; vl_ether_type := 2048 |}, [9]).
Proof. vm_compute. reflexivity. Qed.
End VLAN.

(* ------------------------------------------------------------------ LinuxSllHeader *)
Module SLL.
Import Roundtrip.Sll Roundtrip.SllProofs.

Definition ex_eth : LinuxSllHeader :=
  {| sll_packet_type := 4; sll_arp_hrd_type := 1; sll_sender_address_valid_length := 6;
     sll_sender_address := [1; 2; 3; 4; 5; 6; 0; 0]; sll_protocol_type := SllEtherType 2048 |}.
Definition ex_nonstd : LinuxSllHeader :=
  {| sll_packet_type := 7; sll_arp_hrd_type := 1; sll_sender_address_valid_length := 65535;
     sll_sender_address := repeat 255 8; sll_protocol_type := SllNonstd 250 |}.
Definition ex_netlink : LinuxSllHeader :=
  {| sll_packet_type := 0; sll_arp_hrd_type := 824; sll_sender_address_valid_length := 0;
     sll_sender_address := repeat 0 8; sll_protocol_type := SllNetlink 65535 |}.
(* in range but inconsistent: Ethernet hardware id with an `Ignored` protocol type / unsupported id *)
Definition ex_bad1 : LinuxSllHeader :=
  {| sll_packet_type := 0; sll_arp_hrd_type := 1; sll_sender_address_valid_length := 0;
     sll_sender_address := repeat 0 8; sll_protocol_type := SllIgnored 5 |}.
Definition ex_bad2 : LinuxSllHeader :=
  {| sll_packet_type := 0; sll_arp_hrd_type := 6; sll_sender_address_valid_length := 0;
     sll_sender_address := repeat 0 8; sll_protocol_type := SllEtherType 2048 |}.
Example C08_Sll_ex_wf : wf_sll ex_eth = true /\ wf_sll ex_nonstd = true /\ wf_sll ex_netlink = true
  /\ sll_in_range ex_bad1 = true /\ wf_sll ex_bad1 = false /\ sll_in_range ex_bad2 = true /\ wf_sll ex_bad2 = false.
Proof. repeat split; vm_compute; reflexivity. Qed.
Example C08_Sll_ex_bytes : sll_to_bytes ex_eth = [0; 4; 0; 1; 0; 6; 1; 2; 3; 4; 5; 6; 0; 0; 8; 0].
Proof. vm_compute. reflexivity. Qed.
Example C08_Sll_inconsistent_refuted :
  sll_from_slice (sll_to_bytes ex_bad1) =
    Ok ({| sll_packet_type := 0; sll_arp_hrd_type := 1; sll_sender_address_valid_length := 0;
           sll_sender_address := repeat 0 8; sll_protocol_type := SllNonstd 5 |}, [])
  /\ sll_from_slice (sll_to_bytes ex_bad2) = Err (EContent 1).
Proof. split; vm_compute; reflexivity. Qed.
End SLL.

(* ------------------------------------------------------------------ ArpPacket / ArpEthIpv4Packet *)
Module ARP.
Import Roundtrip.Arp Roundtrip.ArpProofs.

Definition ex_v : ArpEthIpv4Packet :=
  {| ae_operation := 1; ae_sender_mac := [1; 2; 3; 4; 5; 6]; ae_sender_ipv4 := [10; 0; 0; 1];
     ae_target_mac := [0; 0; 0; 0; 0; 0]; ae_target_ipv4 := [10; 0; 0; 2] |}.
Definition ex_stale : ArpPacket :=
  {| arp_hw_addr_type := 65535; arp_proto_addr_type := 65535; arp_hw_addr_size := 1; arp_proto_addr_size := 0;
     arp_operation := 65535; arp_sender_hw_addr_buf := [7; 170; 170]; arp_sender_protocol_addr_buf := [170];
     arp_target_hw_addr_buf := [8; 170]; arp_target_protocol_addr_buf := [] |}.
Example C08_Arp_ex_wf : wf_ae ex_v = true /\ wf_arp ex_stale = true. Proof. split; vm_compute; reflexivity. Qed.
Example C08_Arp_ex_bytes : ae_to_bytes ex_v =
  [0; 1; 8; 0; 6; 4; 0; 1; 1; 2; 3; 4; 5; 6; 10; 0; 0; 1; 0; 0; 0; 0; 0; 0; 10; 0; 0; 2]
  /\ arp_to_bytes ex_stale = Some [255; 255; 255; 255; 1; 0; 255; 255; 7; 8].
Proof. split; vm_compute; reflexivity. Qed.
Example C08_Arp_ex_dec : exists p, arp_from_slice (ae_to_bytes ex_v ++ [9]) = Ok p /\ arp_try_eth_ipv4 p = Ok ex_v.
Proof. eexists. split; [vm_compute; reflexivity|]. vm_compute. reflexivity. Qed.
End ARP.

(* ------------------------------------------------------------------ Ipv4Extensions *)
Module EXTS4.
Import Roundtrip.Auth Roundtrip.AuthProofs Roundtrip.Exts4 Roundtrip.Exts4Proofs.

Definition ex_some : Ipv4Extensions := {| x4_auth := Some AUTH.ex_stale |}.
Example C08_Exts4_ex : wf_x4 ex_some = true /\ x4_linked 51 ex_some = true
  /\ x4_write [] ex_some 51 = Ok [6; 2; 0; 0; 0; 0; 0; 1; 0; 0; 0; 2; 1; 2; 3; 4]
  /\ x4_write [] ex_some 6 = Err (EContent 0)
  /\ x4_from_slice 17 [1; 2; 3] = Ok ({| x4_auth := None |}, 17, [1; 2; 3]).
Proof. repeat split; vm_compute; reflexivity. Qed.
End EXTS4.

(* ------------------------------------------------------------------ Ipv6Extensions *)
(* on the model of property C12 (ExtChain/Model.v) *)
Module EXTS6.
Import ExtChain.Spec ExtChain.Model ExtChain.Proofs Roundtrip.Exts6Proofs.

(* hop-by-hop (8 bytes), fragment with reserved bits set, then UDP: re-encoding clears the reserved bits *)
Definition ex_bytes : bytes := [44; 0; 1; 2; 3; 4; 5; 6] ++ [17; 170; 0; 15; 0; 0; 0; 1] ++ [9; 9].
Example C08_Exts6_ex : exists e,
  from_slice 0 ex_bytes = Ok (e, 17, [9; 9]) /\ exts6_valid e = true
  /\ write e 0 = ([44; 0; 1; 2; 3; 4; 5; 6] ++ [17; 0; 0; 9; 0; 0; 0; 1], Ok tt)
  /\ from_slice 0 (fst (write e 0) ++ [7]) = Ok (e, 17, [7]).
Proof. eexists. split; [vm_compute; reflexivity|]. vm_compute. repeat split. Qed.
(* a repeated fragment header stops the decoder on an extension number; still a round trip *)
Example C08_Exts6_ex_dup : exists e,
  from_slice 44 ([44; 0; 0; 8; 0; 0; 0; 1] ++ [44; 0; 0; 0; 0; 0; 0; 2]) = Ok (e, 44, [44; 0; 0; 0; 0; 0; 0; 2])
  /\ write e 44 = ([44; 0; 0; 8; 0; 0; 0; 1], Ok tt).
Proof. eexists. split; [vm_compute; reflexivity|]. vm_compute. reflexivity. Qed.
End EXTS6.
