(* Roundtrip/Exts6Readers.v -- the decoder of Ipv6Extensions (ExtChain/Model.v: from_slice and its loop over
   read_raw / read_frag / read_auth), read on its own: it looks only at the bytes it consumes (framing), what
   each of the three header readers returns in terms of those bytes, it only ever fills empty places of the
   struct, and every header it stores satisfies the type invariant. *)
From EP Require Import Base.Bytes Base.Lists ExtChain.Spec ExtChain.Model ExtChain.View ExtChain.Proofs.
From EP Require Roundtrip.CommonProofs Roundtrip.FragProofs.
From Coq Require Import ZArith Lia ZifyN.
Local Open Scope N_scope.

Lemma slice_from_app_le (a b : bytes) n r : slice_from a n = Some r -> slice_from (a ++ b) n = Some (r ++ b).
Proof.
  unfold slice_from. destruct (n <=? len a) eqn:E; [|discriminate]. apply N.leb_le in E.
  intros H. injection H as <-. rewrite len_app. destruct (n <=? len a + len b) eqn:E2; [|apply N.leb_gt in E2; lia].
  f_equal. apply CommonProofs.drop_app_le. exact E.
Qed.

(* ---- the three header readers are framed ---- *)
Lemma raw_slice_from_slice_frame s t sl : raw_slice_from_slice s = Ok sl ->
  raw_slice_from_slice (s ++ t) = Ok sl /\ len sl <= len s.
Proof.
  unfold raw_slice_from_slice. destruct (len s <? 8) eqn:L; [discriminate|]. apply N.ltb_ge in L.
  destruct (rd s 1) as [b1|] eqn:R; [|discriminate].
  destruct (len s <? (b1 + 1) * 8) eqn:L2; [discriminate|]. apply N.ltb_ge in L2.
  intros H. injection H as <-. rewrite len_app.
  destruct (len s + len t <? 8) eqn:X; [apply N.ltb_lt in X; lia|].
  rewrite CommonProofs.rd_app_lt by lia. rewrite R.
  destruct (len s + len t <? (b1 + 1) * 8) eqn:X2; [apply N.ltb_lt in X2; lia|].
  rewrite CommonProofs.take_app_le by exact L2. split; [reflexivity|]. rewrite len_take. lia.
Qed.

Lemma read_raw_frame wo wo' slice slice' rest t h nh r :
  read_raw wo slice rest = Ok (h, nh, r) -> read_raw wo' slice' (rest ++ t) = Ok (h, nh, r ++ t).
Proof.
  unfold read_raw. destruct (raw_slice_from_slice rest) as [sl|e| |] eqn:S; try discriminate.
  - destruct (raw_slice_from_slice_frame rest t sl S) as [S' LS]. rewrite S'.
    destruct (slice_from rest (len sl)) as [rest'|] eqn:F; [|discriminate].
    rewrite (slice_from_app_le rest t (len sl) rest' F).
    destruct (raw_slice_next_header sl); [|discriminate].
    destruct (raw_slice_to_header sl); cbn [bind]; try discriminate.
    intros H. injection H as <- <- <-. reflexivity.
  - destruct (offset_err wo slice rest e); cbn [bind]; discriminate.
Qed.

Lemma frag_slice_from_slice_frame s t sl : frag_slice_from_slice s = Ok sl ->
  frag_slice_from_slice (s ++ t) = Ok sl /\ len sl <= len s.
Proof.
  unfold frag_slice_from_slice. destruct (len s <? 8) eqn:L; [discriminate|]. apply N.ltb_ge in L.
  intros H. injection H as <-. rewrite len_app.
  destruct (len s + len t <? 8) eqn:X; [apply N.ltb_lt in X; lia|].
  rewrite CommonProofs.take_app_le by exact L. split; [reflexivity|]. rewrite len_take. lia.
Qed.

Lemma read_frag_frame slice slice' rest t h nh r :
  read_frag slice rest = Ok (h, nh, r) -> read_frag slice' (rest ++ t) = Ok (h, nh, r ++ t).
Proof.
  unfold read_frag. destruct (frag_slice_from_slice rest) as [sl|e| |] eqn:S; try discriminate.
  - destruct (frag_slice_from_slice_frame rest t sl S) as [S' LS]. rewrite S'.
    destruct (slice_from rest (len sl)) as [rest'|] eqn:F; [|discriminate].
    rewrite (slice_from_app_le rest t (len sl) rest' F).
    destruct (rd sl 0); [|discriminate].
    destruct (frag_slice_to_header sl); cbn [bind]; try discriminate.
    intros H. injection H as <- <- <-. reflexivity.
  - destruct (offset_err true slice rest e); cbn [bind]; discriminate.
Qed.

Lemma auth_slice_from_slice_frame s t sl : auth_slice_from_slice s = Ok sl ->
  auth_slice_from_slice (s ++ t) = Ok sl /\ len sl <= len s.
Proof.
  unfold auth_slice_from_slice, AUTH_MIN_LEN. destruct (len s <? 12) eqn:L; [discriminate|]. apply N.ltb_ge in L.
  destruct (rd s 1) as [pl|] eqn:R; [|discriminate].
  destruct (pl <? 1) eqn:P; [discriminate|].
  destruct (len s <? (pl + 2) * 4) eqn:L2; [discriminate|]. apply N.ltb_ge in L2.
  intros H. injection H as <-. rewrite len_app.
  destruct (len s + len t <? 12) eqn:X; [apply N.ltb_lt in X; lia|].
  rewrite CommonProofs.rd_app_lt by lia. rewrite R, P.
  destruct (len s + len t <? (pl + 2) * 4) eqn:X2; [apply N.ltb_lt in X2; lia|].
  rewrite CommonProofs.take_app_le by exact L2. split; [reflexivity|]. rewrite len_take. lia.
Qed.

Lemma read_auth_frame slice slice' rest t h nh r :
  read_auth slice rest = Ok (h, nh, r) -> read_auth slice' (rest ++ t) = Ok (h, nh, r ++ t).
Proof.
  unfold read_auth. destruct (auth_slice_from_slice rest) as [sl|e| |] eqn:S; try discriminate.
  - destruct (auth_slice_from_slice_frame rest t sl S) as [S' LS]. rewrite S'.
    destruct (slice_from rest (len sl)) as [rest'|] eqn:F; [|discriminate].
    rewrite (slice_from_app_le rest t (len sl) rest' F).
    destruct (auth_slice_next_header sl); [|discriminate].
    destruct (auth_slice_to_header sl); cbn [bind]; try discriminate.
    intros H. injection H as <- <- <-. reflexivity.
  - destruct e as [e|]; [destruct (offset_err true slice rest e); cbn [bind]; discriminate|discriminate].
Qed.

(* ---- the chain decoder is framed ---- *)
Lemma from_slice_loop_frame fuel : forall slice slice' result rest next t e n r,
  from_slice_loop fuel slice result rest next = Ok (e, n, r) ->
  from_slice_loop fuel slice' result (rest ++ t) next = Ok (e, n, r ++ t).
Proof.
  induction fuel as [|fuel IH]; intros slice slice' result rest next t e n r H; [discriminate|].
  cbn [from_slice_loop] in *. destruct (arm_of next).
  - discriminate.
  - destruct (routing result) as [rt|].
    + destruct (is_some (rt_final_destination_options rt)).
      * injection H as <- <- <-. reflexivity.
      * destruct (read_raw true slice rest) as [[[h nh] rest']|x| |] eqn:R; cbn [bind] in H; try discriminate.
        rewrite (read_raw_frame true true slice slice' rest t h nh rest' R). cbn [bind]. eapply IH. exact H.
    + destruct (is_some (destination_options result)).
      * injection H as <- <- <-. reflexivity.
      * destruct (read_raw true slice rest) as [[[h nh] rest']|x| |] eqn:R; cbn [bind] in H; try discriminate.
        rewrite (read_raw_frame true true slice slice' rest t h nh rest' R). cbn [bind]. eapply IH. exact H.
  - destruct (is_some (routing result)).
    + injection H as <- <- <-. reflexivity.
    + destruct (read_raw true slice rest) as [[[h nh] rest']|x| |] eqn:R; cbn [bind] in H; try discriminate.
      rewrite (read_raw_frame true true slice slice' rest t h nh rest' R). cbn [bind]. eapply IH. exact H.
  - destruct (is_some (fragment result)).
    + injection H as <- <- <-. reflexivity.
    + destruct (read_frag slice rest) as [[[h nh] rest']|x| |] eqn:R; cbn [bind] in H; try discriminate.
      rewrite (read_frag_frame slice slice' rest t h nh rest' R). cbn [bind]. eapply IH. exact H.
  - destruct (is_some (auth result)).
    + injection H as <- <- <-. reflexivity.
    + destruct (read_auth slice rest) as [[[h nh] rest']|x| |] eqn:R; cbn [bind] in H; try discriminate.
      rewrite (read_auth_frame slice slice' rest t h nh rest' R). cbn [bind]. eapply IH. exact H.
  - injection H as <- <- <-. reflexivity.
Qed.

(* Ipv6Extensions::from_slice reads only the extension headers: trailing bytes come back untouched *)
Theorem from_slice_frame first s t e n r :
  from_slice first s = Ok (e, n, r) -> from_slice first (s ++ t) = Ok (e, n, r ++ t).
Proof.
  unfold from_slice. destruct (IPV6_HOP_BY_HOP =? first).
  - destruct (read_raw false s s) as [[[h nh] rest']|x| |] eqn:R; cbn [bind]; try discriminate.
    rewrite (read_raw_frame false false s (s ++ t) s t h nh rest' R). cbn [bind].
    apply from_slice_loop_frame.
  - apply from_slice_loop_frame.
Qed.

(* decode -> encode: what the three header readers return, in terms of the bytes they consumed *)
Lemma read_raw_inv wo slice rest h nh rest' : bytes_ok rest -> read_raw wo slice rest = Ok (h, nh, rest') ->
  raw_valid h = true /\ nh = r_next_header h
  /\ rest = (r_next_header h :: r_header_length h :: r_payload h) ++ rest'.
Proof.
  intros OK H. unfold read_raw in H.
  destruct (raw_slice_from_slice rest) as [sl|x| |] eqn:S; try discriminate.
  2:{ destruct (offset_err wo slice rest x); cbn [bind] in H; discriminate. }
  unfold raw_slice_from_slice in S.
  destruct (len rest <? 8) eqn:L; [discriminate|]. apply N.ltb_ge in L.
  destruct (rd rest 1) as [b1|] eqn:R1; [|discriminate].
  destruct (len rest <? (b1 + 1) * 8) eqn:L2; [discriminate|]. apply N.ltb_ge in L2.
  injection S as <-.
  set (l := (b1 + 1) * 8) in *. set (sl := take l rest) in *.
  assert (B1 : b1 < 256) by (eapply rd_ok; eauto).
  assert (LS : len sl = l) by (unfold sl; rewrite len_take; lia).
  unfold slice_from in H. rewrite LS in H.
  destruct (l <=? len rest) eqn:X; [|apply N.leb_gt in X; lia].
  unfold raw_slice_next_header in H.
  destruct (rd sl 0) as [b0|] eqn:R0; [|discriminate].
  unfold raw_slice_to_header, raw_slice_next_header, raw_slice_payload, usize_sub in H. rewrite R0, LS in H.
  destruct (2 <=? l) eqn:X2; [|apply N.leb_gt in X2; lia].
  assert (R1' : rd sl 1 = Some b1) by (unfold sl; rewrite Lists.rd_take_lt by lia; exact R1).
  assert (BS : bytes_ok sl) by (unfold sl; apply bytes_ok_take; exact OK).
  assert (B0 : b0 < 256) by (eapply rd_ok; eauto).
  destruct sl as [|x0 [|x1 p]] eqn:ESL; try (rewrite ?len_cons, ?len_nil in LS; lia).
  change (rd (x0 :: x1 :: p) 0) with (Some x0) in R0. change (rd (x0 :: x1 :: p) 1) with (Some x1) in R1'.
  injection R0 as ->. injection R1' as ->.
  change (drop 2 (b0 :: b1 :: p)) with p in H.
  assert (LP : len p = 6 + b1 * 8) by (rewrite !len_cons in LS; lia).
  unfold raw_new_raw, RAW_MIN_PAYLOAD_LEN, RAW_MAX_PAYLOAD_LEN in H. rewrite LP in H.
  destruct (6 + b1 * 8 <? 6) eqn:E1; [apply N.ltb_lt in E1; lia|].
  destruct (2046 <? 6 + b1 * 8) eqn:E2; [apply N.ltb_lt in E2; lia|].
  assert (E3 : ((6 + b1 * 8 + 2) mod 8 =? 0) = true).
  { apply N.eqb_eq. replace (6 + b1 * 8 + 2) with ((b1 + 1) * 8) by lia. apply N.mod_mul. lia. }
  rewrite E3 in H. cbn [negb bind] in H.
  assert (E4 : ((6 + b1 * 8 - 6) / 8) mod 256 = b1).
  { replace (6 + b1 * 8 - 6) with (b1 * 8) by lia. rewrite N.div_mul by lia. apply N.mod_small. exact B1. }
  rewrite E4 in H. injection H as <- <- <-. cbn [r_next_header r_header_length r_payload].
  split; [|split; [reflexivity|]].
  - unfold raw_valid. cbn [r_next_header r_header_length r_payload].
    apply N.ltb_lt in B0, B1. rewrite B0, B1, LP, N.eqb_refl. cbn [andb].
    apply bytes_okb_spec. apply bytes_ok_cons in BS. destruct BS as [_ BS].
    apply bytes_ok_cons in BS. destruct BS as [_ BS]. exact BS.
  - rewrite <- ESL. unfold sl. symmetry. apply take_drop.
Qed.

(* fragment header: bytes 2,3 hold offset*8 + M; byte 1 and bits 1-2 of byte 3 are reserved *)
Lemma fr_facts b2 b3 : b2 < 256 -> b3 < 256 ->
  let fo := N.shiftr (be16 b2 b3) 3 in
  let more := negb (N.land b3 1 =? 0) in
  let w := N.lor ((N.shiftl fo 3) mod 65536) (if more then 1 else 0) in
  fo < 8192 /\ (w / 256) mod 256 = b2 /\ w mod 256 = N.land b3 249.
Proof. exact (Roundtrip.FragProofs.frag_word_reencode b2 b3). Qed.

Lemma read_frag_inv slice rest h nh rest' : bytes_ok rest -> read_frag slice rest = Ok (h, nh, rest') ->
  frag_valid h = true /\ nh = f_next_header h /\
  exists b0 b1 b2 b3 b4 b5 b6 b7,
    rest = [b0; b1; b2; b3; b4; b5; b6; b7] ++ rest'
    /\ frag_to_bytes h = [b0; 0; b2; N.land b3 249; b4; b5; b6; b7].
Proof.
  intros OK H. unfold read_frag in H.
  destruct (frag_slice_from_slice rest) as [sl|x| |] eqn:S; try discriminate.
  2:{ destruct (offset_err true slice rest x); cbn [bind] in H; discriminate. }
  unfold frag_slice_from_slice in S.
  destruct (len rest <? 8) eqn:L; [discriminate|].
  destruct rest as [|b0 [|b1 [|b2 [|b3 [|b4 [|b5 [|b6 [|b7 r]]]]]]]]; try (vm_compute in L; discriminate).
  injection S as <-.
  change (take 8 (b0 :: b1 :: b2 :: b3 :: b4 :: b5 :: b6 :: b7 :: r)) with [b0; b1; b2; b3; b4; b5; b6; b7] in H.
  unfold slice_from in H. change (len [b0; b1; b2; b3; b4; b5; b6; b7]) with 8 in H.
  apply N.ltb_ge in L. destruct (8 <=? len (b0 :: b1 :: b2 :: b3 :: b4 :: b5 :: b6 :: b7 :: r)) eqn:X;
    [|apply N.leb_gt in X; lia].
  change (drop 8 (b0 :: b1 :: b2 :: b3 :: b4 :: b5 :: b6 :: b7 :: r)) with r in H.
  rewrite rd0 in H. unfold frag_slice_to_header in H.
  rewrite rd0, rd2, rd3, rd4, rd5, rd6, rd7 in H. cbn [bind] in H. injection H as <- <- <-.
  cbn [f_next_header]. unfold bytes_ok in OK.
  repeat (match goal with H : Forall _ (_ :: _) |- _ => inversion H; clear H; subst end).
  unfold byte_ok in *.
  destruct (fr_facts b2 b3 ltac:(assumption) ltac:(assumption)) as (F1 & F2 & F3). cbv zeta in *.
  split; [|split; [reflexivity|]].
  - unfold frag_valid. cbn [f_next_header f_fragment_offset f_identification].
    assert (I : be32 b4 b5 b6 b7 < 4294967296) by (unfold be32; lia).
    rewrite !andb_true_iff, !N.ltb_lt. auto.
  - exists b0, b1, b2, b3, b4, b5, b6, b7. split; [reflexivity|].
    unfold frag_to_bytes. cbn [f_next_header f_fragment_offset f_more_fragments f_identification].
    rewrite to_be32_be32 by assumption. unfold to_be16. rewrite F2, F3. reflexivity.
Qed.

Lemma read_auth_inv slice rest h nh rest' : bytes_ok rest -> read_auth slice rest = Ok (h, nh, rest') ->
  auth_valid h = true /\ nh = a_next_header h /\
  exists b0 b1 b2 b3 body,
    rest = [b0; b1; b2; b3] ++ body ++ rest' /\ auth_bytes h = [b0; b1; 0; 0] ++ body.
Proof.
  intros OK H. unfold read_auth in H.
  destruct (auth_slice_from_slice rest) as [sl|x| |] eqn:S; try discriminate.
  2:{ destruct x as [x|]; [destruct (offset_err true slice rest x); cbn [bind] in H; discriminate|discriminate]. }
  unfold auth_slice_from_slice, AUTH_MIN_LEN in S.
  destruct (len rest <? 12) eqn:L; [discriminate|]. apply N.ltb_ge in L.
  destruct rest as [|b0 [|b1 [|b2 [|b3 [|b4 [|b5 [|b6 [|b7 [|b8 [|b9 [|b10 [|b11 r]]]]]]]]]]]];
    try (rewrite ?len_cons, ?len_nil in L; lia).
  rewrite rd1 in S. destruct (b1 <? 1) eqn:P; [discriminate|]. apply N.ltb_ge in P.
  set (rest := b0 :: b1 :: b2 :: b3 :: b4 :: b5 :: b6 :: b7 :: b8 :: b9 :: b10 :: b11 :: r) in *.
  destruct (len rest <? (b1 + 2) * 4) eqn:L2; [discriminate|]. apply N.ltb_ge in L2.
  injection S as <-.
  pose proof OK as OK'. unfold rest, bytes_ok in OK'.
  repeat (match goal with H : Forall _ (_ :: _) |- _ => inversion H; clear H; subst end).
  unfold byte_ok in *.
  set (k := b1 - 1). assert (K : (b1 + 2) * 4 = 12 + k * 4) by (unfold k; lia).
  set (F := [b0; b1; b2; b3; b4; b5; b6; b7; b8; b9; b10; b11]).
  assert (ER : rest = F ++ r) by reflexivity.
  assert (LR : k * 4 <= len r) by (rewrite ER, len_app in L2; change (len F) with 12 in L2; lia).
  set (icv := take (k * 4) r).
  assert (LI : len icv = k * 4) by (unfold icv; rewrite len_take; lia).
  assert (TK : take ((b1 + 2) * 4) rest = F ++ icv).
  { rewrite K, ER. unfold take. replace (N.to_nat (12 + k * 4)) with (12 + N.to_nat (k * 4))%nat by lia.
    reflexivity. }
  rewrite TK in H. unfold slice_from in H.
  rewrite len_app, LI in H. change (len F) with 12 in H.
  destruct (12 + k * 4 <=? len rest) eqn:X; [|apply N.leb_gt in X; lia].
  assert (DR : drop (12 + k * 4) rest = drop (k * 4) r).
  { rewrite ER. unfold drop. replace (N.to_nat (12 + k * 4)) with (12 + N.to_nat (k * 4))%nat by lia. reflexivity. }
  rewrite DR in H. unfold auth_slice_next_header in H. unfold F in H. cbn [app] in H. rewrite rd0 in H.
  unfold auth_slice_to_header in H.
  rewrite rd0, rd4, rd5, rd6, rd7, rd8, rd9, rd10, rd11 in H.
  unfold slice_from in H. rewrite !len_cons, LI in H.
  destruct (12 <=? 1 + (1 + (1 + (1 + (1 + (1 + (1 + (1 + (1 + (1 + (1 + (1 + k * 4)))))))))))) eqn:X2;
    [|apply N.leb_gt in X2; lia].
  change (drop 12 (b0 :: b1 :: b2 :: b3 :: b4 :: b5 :: b6 :: b7 :: b8 :: b9 :: b10 :: b11 :: icv)) with icv in H.
  unfold auth_new, AUTH_MAX_ICV_LEN in H. rewrite LI in H.
  destruct (1016 <? k * 4) eqn:E1; [apply N.ltb_lt in E1; unfold k in E1; lia|].
  assert (E2 : ((k * 4) mod 4 =? 0) = true) by (apply N.eqb_eq, N.mod_mul; lia).
  rewrite E2 in H. cbn [negb bind] in H.
  assert (E3 : (k * 4 / 4) mod 256 = k) by (rewrite N.div_mul by lia; apply N.mod_small; unfold k; lia).
  rewrite E3 in H. injection H as <- <- <-. cbn [a_next_header].
  assert (BI : bytes_ok icv).
  { unfold icv. apply bytes_ok_take. assumption. }
  split; [|split; [reflexivity|]].
  - unfold auth_valid. cbn [a_next_header a_spi a_sequence_number a_raw_icv_len a_raw_icv].
    assert (I1 : be32 b4 b5 b6 b7 < 4294967296) by (unfold be32; lia).
    assert (I2 : be32 b8 b9 b10 b11 < 4294967296) by (unfold be32; lia).
    assert (I3 : k < 255) by (unfold k; lia).
    rewrite !andb_true_iff, !N.ltb_lt, N.eqb_eq, bytes_okb_spec. auto 10.
  - exists b0, b1, b2, b3, ([b4; b5; b6; b7; b8; b9; b10; b11] ++ icv). split.
    + rewrite ER. unfold F. cbn [app]. do 12 f_equal. unfold icv. symmetry. apply take_drop.
    + unfold auth_bytes. cbn [a_next_header a_spi a_sequence_number a_raw_icv_len a_raw_icv].
      rewrite !to_be32_be32 by assumption. replace (k + 1) with b1 by (unfold k; lia). reflexivity.
Qed.

(* ================================================================== *)
(* the decoder only ever fills empty places: the final struct extends every intermediate one *)
Definition ext_le (a e : Exts6) : Prop :=
  hop_by_hop_options e = hop_by_hop_options a /\
  (forall h, destination_options a = Some h -> destination_options e = Some h) /\
  (forall ra, routing a = Some ra -> exists re, routing e = Some re /\ rt_routing re = rt_routing ra /\
     (forall h, rt_final_destination_options ra = Some h -> rt_final_destination_options re = Some h)) /\
  (forall h, fragment a = Some h -> fragment e = Some h) /\
  (forall h, auth a = Some h -> auth e = Some h).

Lemma ext_le_refl a : ext_le a a.
Proof. unfold ext_le. repeat split; auto. intros ra H. exists ra. auto. Qed.

Lemma ext_le_trans a b c : ext_le a b -> ext_le b c -> ext_le a c.
Proof.
  unfold ext_le. intros (A1 & A2 & A3 & A4 & A5) (B1 & B2 & B3 & B4 & B5).
  split; [congruence|]. split; [auto|]. split; [|split; auto].
  intros ra H. destruct (A3 ra H) as (rb & Hb & Eb & Fb). destruct (B3 rb Hb) as (rc & Hc & Ec & Fc).
  exists rc. split; [exact Hc|]. split; [congruence|]. auto.
Qed.

Lemma is_some_false {A} (o : option A) : is_some o = false -> o = None.
Proof. destruct o; [discriminate|reflexivity]. Qed.

Lemma from_slice_loop_mono fuel : forall slice result rest next e n r,
  from_slice_loop fuel slice result rest next = Ok (e, n, r) -> ext_le result e.
Proof.
  induction fuel as [|fuel IH]; intros slice result rest next e n r H; [discriminate|].
  cbn [from_slice_loop] in H. destruct (arm_of next).
  - discriminate.
  - destruct (routing result) as [rt|] eqn:ER.
    + destruct (is_some (rt_final_destination_options rt)) eqn:EF.
      * injection H as <- _ _. apply ext_le_refl.
      * destruct (read_raw true slice rest) as [[[h nh] rest']|x| |]; cbn [bind] in H; try discriminate.
        apply IH in H. eapply ext_le_trans; [|exact H].
        apply is_some_false in EF.
        unfold ext_le, set_routing. cbn. repeat split; auto.
        intros ra Hra. rewrite ER in Hra. injection Hra as <-. eexists. split; [reflexivity|]. split; [reflexivity|].
        intros h0 Hh. rewrite EF in Hh. discriminate.
    + destruct (is_some (destination_options result)) eqn:ED.
      * injection H as <- _ _. apply ext_le_refl.
      * destruct (read_raw true slice rest) as [[[h nh] rest']|x| |]; cbn [bind] in H; try discriminate.
        apply IH in H. eapply ext_le_trans; [|exact H].
        apply is_some_false in ED.
        unfold ext_le, set_dst. cbn. repeat split; auto.
        -- intros h0 Hh. rewrite ED in Hh. discriminate.
        -- intros ra Hra. rewrite ER in Hra. discriminate.
  - destruct (is_some (routing result)) eqn:ER.
    + injection H as <- _ _. apply ext_le_refl.
    + destruct (read_raw true slice rest) as [[[h nh] rest']|x| |]; cbn [bind] in H; try discriminate.
      apply IH in H. eapply ext_le_trans; [|exact H].
      apply is_some_false in ER.
      unfold ext_le, set_routing. cbn. repeat split; auto.
      intros ra Hra. rewrite ER in Hra. discriminate.
  - destruct (is_some (fragment result)) eqn:EF.
    + injection H as <- _ _. apply ext_le_refl.
    + destruct (read_frag slice rest) as [[[h nh] rest']|x| |]; cbn [bind] in H; try discriminate.
      apply IH in H. eapply ext_le_trans; [|exact H].
      apply is_some_false in EF.
      unfold ext_le, set_frag. cbn. repeat split; auto.
      * intros ra Hra. exists ra. auto.
      * intros h0 Hh. rewrite EF in Hh. discriminate.
  - destruct (is_some (auth result)) eqn:EA.
    + injection H as <- _ _. apply ext_le_refl.
    + destruct (read_auth slice rest) as [[[h nh] rest']|x| |]; cbn [bind] in H; try discriminate.
      apply IH in H. eapply ext_le_trans; [|exact H].
      apply is_some_false in EA.
      unfold ext_le, set_auth. cbn. repeat split; auto.
      * intros ra Hra. exists ra. auto.
      * intros h0 Hh. rewrite EA in Hh. discriminate.
  - injection H as <- _ _. apply ext_le_refl.
Qed.

(* suffixes of byte strings *)
Lemma bytes_ok_app_r (a b : bytes) : bytes_ok (a ++ b) -> bytes_ok b.
Proof. intros H. apply bytes_ok_app in H. tauto. Qed.

(* every header the decoder stores satisfies the type invariant *)
Lemma from_slice_loop_valid fuel : forall slice result rest next e n r,
  bytes_ok rest -> exts6_valid result = true ->
  from_slice_loop fuel slice result rest next = Ok (e, n, r) -> exts6_valid e = true /\ bytes_ok r.
Proof.
  induction fuel as [|fuel IH]; intros slice result rest next e n r OK V H; [discriminate|].
  pose proof (exts6_valid_inv result V) as (Vh & Vd & Vr & Vf & Va).
  cbn [from_slice_loop] in H. destruct (arm_of next).
  - discriminate.
  - destruct (routing result) as [rt|] eqn:ER.
    + destruct (is_some (rt_final_destination_options rt)).
      * injection H as <- _ <-. auto.
      * destruct (read_raw true slice rest) as [[[h nh] rest']|x| |] eqn:R; cbn [bind] in H; try discriminate.
        destruct (read_raw_inv _ _ _ _ _ _ OK R) as (VH & _ & ->).
        apply bytes_ok_app_r in OK. eapply IH; [exact OK| |exact H].
        cbn [opt_valid] in Vr. apply routing_valid_inv in Vr. destruct Vr as [Vrt _].
        unfold exts6_valid, set_routing. cbn. rewrite Vh, Vd, Vf, Va. unfold routing_valid. cbn.
        rewrite Vrt, VH. reflexivity.
    + destruct (is_some (destination_options result)).
      * injection H as <- _ <-. auto.
      * destruct (read_raw true slice rest) as [[[h nh] rest']|x| |] eqn:R; cbn [bind] in H; try discriminate.
        destruct (read_raw_inv _ _ _ _ _ _ OK R) as (VH & _ & ->).
        apply bytes_ok_app_r in OK. eapply IH; [exact OK| |exact H].
        unfold exts6_valid, set_dst. cbn. rewrite ER. cbn. rewrite Vh, Vf, Va, VH. reflexivity.
  - destruct (is_some (routing result)).
    + injection H as <- _ <-. auto.
    + destruct (read_raw true slice rest) as [[[h nh] rest']|x| |] eqn:R; cbn [bind] in H; try discriminate.
      destruct (read_raw_inv _ _ _ _ _ _ OK R) as (VH & _ & ->).
      apply bytes_ok_app_r in OK. eapply IH; [exact OK| |exact H].
      unfold exts6_valid, set_routing. cbn. rewrite Vh, Vd, Vf, Va. unfold routing_valid. cbn.
      rewrite VH. reflexivity.
  - destruct (is_some (fragment result)).
    + injection H as <- _ <-. auto.
    + destruct (read_frag slice rest) as [[[h nh] rest']|x| |] eqn:R; cbn [bind] in H; try discriminate.
      destruct (read_frag_inv _ _ _ _ _ OK R) as (VH & _ & b0 & b1 & b2 & b3 & b4 & b5 & b6 & b7 & -> & _).
      apply bytes_ok_app_r in OK. eapply IH; [exact OK| |exact H].
      unfold exts6_valid, set_frag. cbn. rewrite Vh, Vd, Vr, Va, VH. reflexivity.
  - destruct (is_some (auth result)).
    + injection H as <- _ <-. auto.
    + destruct (read_auth slice rest) as [[[h nh] rest']|x| |] eqn:R; cbn [bind] in H; try discriminate.
      destruct (read_auth_inv _ _ _ _ _ OK R) as (VH & _ & b0 & b1 & b2 & b3 & body & -> & _).
      apply bytes_ok_app_r in OK. apply bytes_ok_app_r in OK.
      eapply IH; [exact OK| |exact H].
      unfold exts6_valid, set_auth. cbn. rewrite Vh, Vd, Vr, Vf, VH. reflexivity.
  - injection H as <- _ <-. auto.
Qed.


Lemma done_fixed e f : flags_ok e f -> done e f = e -> f = mkFlags false false false false false false.
Proof.
  intros (F1 & F2 & F3 & F4 & F5 & F6) D.
  destruct f as [f1 f2 f3 f4 f5 f6]. cbn in *.
  apply (f_equal hop_by_hop_options) in D as D1. apply (f_equal destination_options) in D as D2.
  apply (f_equal routing) in D as D3. apply (f_equal fragment) in D as D4. apply (f_equal auth) in D as D5.
  unfold done in D1, D2, D3, D4, D5. cbn in D1, D2, D3, D4, D5.
  assert (f1 = false).
  { destruct f1; [|reflexivity]. specialize (F1 eq_refl). rewrite <- D1 in F1. discriminate. }
  assert (f2 = false).
  { destruct f2; [|reflexivity]. specialize (F2 eq_refl). rewrite <- D2 in F2. discriminate. }
  assert (f3 = false).
  { destruct f3; [|reflexivity]. specialize (F3 eq_refl). rewrite <- D3 in F3. discriminate. }
  assert (f4 = false).
  { destruct f4; [|reflexivity]. specialize (F4 eq_refl). rewrite <- D4 in F4. discriminate. }
  assert (f5 = false).
  { destruct f5; [|reflexivity]. specialize (F5 eq_refl). rewrite <- D5 in F5. discriminate. }
  subst. assert (f6 = false).
  { destruct f6; [|reflexivity]. destruct (F6 eq_refl) as (r & Er & Fr). rewrite Er in D3.
    injection D3 as D3. rewrite <- D3 in Fr. discriminate. }
  subst. reflexivity.
Qed.


(* the condition under which the decoder loop returns without reading *)
Definition stops (e : Exts6) (next : N) : bool :=
  match arm_of next with
  | AHop => false
  | ADest => match routing e with
             | Some r => is_some (rt_final_destination_options r)
             | None => is_some (destination_options e)
             end
  | ARoute => is_some (routing e)
  | AFrag => is_some (fragment e)
  | AAuth => is_some (auth e)
  | AOther => true
  end.

Lemma stops_loop e next fuel slice t : stops e next = true ->
  from_slice_loop (S fuel) slice e t next = Ok (e, next, t).
Proof.
  unfold stops. cbn [from_slice_loop]. destruct (arm_of next); try discriminate; try reflexivity.
  - destruct (routing e) as [r|]; intros ->; reflexivity.
  - intros ->; reflexivity.
  - intros ->; reflexivity.
  - intros ->; reflexivity.
Qed.


(* [done e nw] (ExtChain/Proofs.v: the part of e that write_internal has emitted when nw is still to be
   written) field by field, and storing the next header of e in it *)
Lemma routing_done e nw : routing (done e nw) =
  if fl_routing nw then None
  else match routing e with
       | Some r => Some (mkRouting (rt_routing r)
                           (if fl_final_destination_options nw then None else rt_final_destination_options r))
       | None => None
       end.
Proof. reflexivity. Qed.
Lemma destination_options_done e nw :
  destination_options (done e nw) = if fl_destination_options nw then None else destination_options e.
Proof. reflexivity. Qed.
Lemma fragment_done e nw : fragment (done e nw) = if fl_fragment nw then None else fragment e.
Proof. reflexivity. Qed.
Lemma auth_done e nw : auth (done e nw) = if fl_auth nw then None else auth e.
Proof. reflexivity. Qed.

Lemma done_set_dst e nw h : destination_options e = Some h -> set_dst (done e nw) h = done e (clr_dst nw).
Proof. intros M. unfold done, set_dst, clr_dst. cbn. rewrite M. reflexivity. Qed.
Lemma done_set_frag e nw h : fragment e = Some h -> set_frag (done e nw) h = done e (clr_frag nw).
Proof. intros M. unfold done, set_frag, clr_frag. cbn. rewrite M. reflexivity. Qed.
Lemma done_set_auth e nw h : auth e = Some h -> set_auth (done e nw) h = done e (clr_auth nw).
Proof. intros M. unfold done, set_auth, clr_auth. cbn. rewrite M. reflexivity. Qed.
Lemma done_set_final e nw re h : fl_routing nw = false -> routing e = Some re ->
  rt_final_destination_options re = Some h ->
  set_routing (done e nw) (mkRouting (rt_routing re) (Some h)) = done e (clr_final nw).
Proof. intros FR ER MF. unfold done, set_routing, clr_final. cbn. rewrite FR, ER, MF. reflexivity. Qed.
Lemma done_set_routing e nw re : routing e = Some re -> fl_final_destination_options nw = has_final e ->
  set_routing (done e nw) (mkRouting (rt_routing re) None) = done e (clr_routing nw).
Proof.
  intros ER I. unfold has_final in I. rewrite ER in I. unfold done, set_routing, clr_routing. cbn.
  rewrite ER, I. destruct (rt_final_destination_options re); reflexivity.
Qed.
