(* Roundtrip/IpHeadersProofs.v -- lemmas for the IpHeaders model (Roundtrip/IpHeaders.v). *)
From EP Require Import Base.Bytes Checksum.Spec Checksum.Model Checksum.Proofs.
From EP Require Import Roundtrip.Common Roundtrip.CommonProofs Roundtrip.LinkNetLemmas.
From EP Require Import Roundtrip.Ipv4 Roundtrip.Ipv4Proofs Roundtrip.Ipv6 Roundtrip.Ipv6Proofs.
From EP Require Import Roundtrip.Auth Roundtrip.AuthProofs Roundtrip.Exts4 Roundtrip.Exts4Proofs.
From EP Require Import Roundtrip.IpHeaders Roundtrip.ReaderMono.
From EP Require IoFault.Spec IoFault.Model ExtChain.Spec ExtChain.Model ExtChain.Proofs ExtChain.ReadModel
  ExtChain.ReadView ExtChain.ReadProofs Roundtrip.Exts6Proofs.
From Coq Require Import ZArith Lia ZifyN.
Local Open Scope N_scope.

Ltac ltb_t H := first [apply N.ltb_lt in H | apply N.ltb_ge in H | apply N.leb_le in H | apply N.leb_gt in H
                       | apply N.eqb_eq in H | apply N.eqb_neq in H].

Lemma band15_lt b : band b 15 < 16.
Proof. unfold band. change 15 with (N.ones 4). rewrite N.land_ones. apply N.mod_lt. discriminate. Qed.

Lemma slice_range_eq (s : bytes) a b : a <= b -> b <= len s -> slice_range s a b = Some (take (b - a) (drop a s)).
Proof.
  intros H1 H2. unfold slice_range. rewrite (leb_true _ _ H1), (leb_true _ _ H2). reflexivity.
Qed.

Lemma iph_checksum64_le e ps : checksum64 e ps <= 65535.
Proof.
  unfold checksum64.
  assert (H : U64.ones_complement (sum_pieces64 e 0 ps) <= 65535) by (unfold U64.ones_complement; lia).
  destruct (to_be_spec e _ H) as (_ & T & _). exact T.
Qed.

Lemma iph_calc_checksum_some e h : wf_ip4 h = true ->
  exists ck, ip4_calc_checksum e h = Some ck /\ ck < 65536.
Proof.
  intros W. destruct (wf_ip4_facts h W) as (_ & _ & (LS & OS & LD & OD) & WO).
  destruct (Ipv4Proofs.len4_explicit _ LS OS) as (s0 & s1 & s2 & s3 & ES & _).
  destruct (Ipv4Proofs.len4_explicit _ LD OD) as (d0 & d1 & d2 & d3 & ED & _).
  unfold ip4_calc_checksum. rewrite ES, ED, (i4o_as_slice_wf _ WO).
  eexists. split; [reflexivity|].
  eapply N.le_lt_trans; [apply iph_checksum64_le|lia].
Qed.

(* Ipv4Header::write: the checksum it computes fits a u16 and the bytes written are to_bytes of the
   value carrying that checksum -- those of the value itself when its checksum field is already right *)
Lemma ip4_write_checksummed e h out : wf_ip4 h = true ->
  exists ck b, ip4_calc_checksum e h = Some ck /\ ck < 65536
    /\ ip4_to_bytes (ip4_set_checksum h ck) = Some b /\ ip4_write e out h = Some (out ++ b)
    /\ len b = ip4_header_len h
    /\ (i4_header_checksum h = ck -> ip4_to_bytes h = Some b).
Proof.
  intros W. destruct (ip4_write_recomputes e h out W) as (ck & C & A & B).
  destruct (iph_calc_checksum_some e h W) as (ck' & C' & L).
  rewrite C in C'. injection C' as <-.
  destruct (A L) as (b & T & Wr). exists ck, b.
  split; [exact C|]. split; [exact L|]. split; [exact T|]. split; [exact Wr|]. split.
  - destruct (ip4_ser_agree (ip4_set_checksum h ck) out (wf_set_checksum h ck W L)) as (b' & T' & _ & LB).
    rewrite T in T'. injection T' as <-. exact LB.
  - intros E. destruct (B E) as (b' & T' & Wr'). rewrite Wr in Wr'. injection Wr' as Wr'.
    apply app_inv_head in Wr'. subst b'. exact T'.
Qed.

Lemma ip4_to_header_len t h : ip4_to_header t = Ok h -> len t <= 60 -> ip4_header_len h = len t.
Proof.
  unfold ip4_to_header. intros TH L.
  destruct t as [|c0 [|c1 [|c2 [|c3 [|c4 [|c5 [|c6 [|c7 [|c8 [|c9 [|c10 [|c11 [|c12 [|c13 [|c14
      [|c15 [|c16 [|c17 [|c18 [|c19 os]]]]]]]]]]]]]]]]]]]]; try discriminate.
  destruct (40 <? len os) eqn:LO; [discriminate|].
  apply Ok_inj in TH. subst h. unfold ip4_header_len. cbn [i4_options i4o_len].
  rewrite !len_cons in *. unfold as_u8. rewrite N.mod_small by lia. lia.
Qed.

Lemma ip4_from_slice_inv s h rest : ip4_from_slice s = Ok (h, rest) ->
  exists b0, rd s 0 = Some b0 /\ shr b0 4 = 4 /\ (band b0 15 <? 5) = false /\ 20 <= len s
    /\ band b0 15 * 4 <= len s /\ ip4_to_header (take (band b0 15 * 4) s) = Ok h
    /\ ip4_header_len h = band b0 15 * 4 /\ rest = drop (band b0 15 * 4) s.
Proof.
  unfold ip4_from_slice, ip4_slice_from_slice.
  destruct (len s <? 20) eqn:L20; [discriminate|]. ltb_t L20.
  destruct (rd s 0) as [b0|] eqn:R0; [|discriminate].
  destruct (shr b0 4 =? 4) eqn:V; cbn [negb]; [|discriminate]. ltb_t V.
  destruct (band b0 15 <? 5) eqn:I; [discriminate|].
  set (hl := band b0 15 * 4).
  destruct (len s <? hl) eqn:LH; [discriminate|]. ltb_t LH.
  destruct (ip4_to_header (take hl s)) as [hd|e] eqn:TH; [|discriminate].
  destruct (slice_from s (ip4_header_len hd)) as [r|] eqn:SF; [|discriminate].
  intros H. apply Ok_inj in H. injection H as <- <-.
  assert (HL : ip4_header_len hd = hl).
  { pose proof (band15_lt b0) as B. rewrite (ip4_to_header_len _ _ TH); rewrite len_take; subst hl; lia. }
  exists b0. repeat split; try assumption; try reflexivity.
  unfold slice_from in SF. rewrite HL in SF. destruct (hl <=? len s); [|discriminate]. injection SF as <-. reflexivity.
Qed.

Theorem iph_dispatch_v4 s b0 : rd s 0 = Some b0 -> shr b0 4 = 4 -> iph_from_slice s = iph_from_ipv4_slice s.
Proof.
  intros R0 V. pose proof (rd_Some_lt _ _ _ R0) as L1.
  unfold iph_from_slice, iph_from_ipv4_slice, ip4_from_slice, ip4_slice_from_slice.
  replace (len s =? 0) with false by (symmetry; apply N.eqb_neq; lia).
  rewrite R0, V. change (4 =? 4) with true. cbn [negb].
  destruct (len s <? 20) eqn:L20; [reflexivity|]. ltb_t L20.
  destruct (band b0 15 <? 5) eqn:I; [reflexivity|].
  set (hl := band b0 15 * 4).
  assert (HB : hl <= 60) by (pose proof (band15_lt b0); subst hl; lia).
  destruct (len s <? hl) eqn:LH; [reflexivity|]. ltb_t LH.
  destruct (ip4_to_header (take hl s)) as [hd|e] eqn:TH; [|reflexivity].
  assert (HL : ip4_header_len hd = hl).
  { rewrite (ip4_to_header_len _ _ TH); rewrite len_take; lia. }
  rewrite HL. unfold slice_from. rewrite (leb_true _ _ LH). cbv beta iota zeta. rewrite HL.
  destruct (i4_total_len hd <? hl) eqn:T1.
  - ltb_t T1. replace (hl <=? i4_total_len hd) with false by (symmetry; apply N.leb_gt; lia). reflexivity.
  - ltb_t T1. rewrite (leb_true _ _ T1). rewrite len_drop.
    destruct (len s <? i4_total_len hd) eqn:T2.
    + ltb_t T2. replace (len s - hl <? i4_total_len hd - hl) with true by (symmetry; apply N.ltb_lt; lia). reflexivity.
    + ltb_t T2. replace (len s - hl <? i4_total_len hd - hl) with false by (symmetry; apply N.ltb_ge; lia).
      rewrite slice_range_eq by lia. rewrite slice_range_eq by (rewrite ?len_drop; lia).
      rewrite N.sub_0_r, drop_0. reflexivity.
Qed.

Theorem iph_dispatch_v6 s b0 : rd s 0 = Some b0 -> shr b0 4 = 6 -> iph_from_slice s = iph_from_ipv6_slice s.
Proof.
  intros R0 V. pose proof (rd_Some_lt _ _ _ R0) as L1.
  unfold iph_from_slice, iph_from_ipv6_slice, ip6_from_slice, ip6_slice_from_slice.
  replace (len s =? 0) with false by (symmetry; apply N.eqb_neq; lia).
  rewrite R0, V. change (6 =? 4) with false. change (6 =? 6) with true. cbn [negb].
  destruct (len s <? 40) eqn:L40; [reflexivity|]. ltb_t L40.
  destruct (ip6_to_header (take 40 s)) as [hd|e] eqn:TH; [|reflexivity].
  unfold slice_from. rewrite (leb_true _ _ L40).
  destruct ((0 =? i6_payload_length hd) && (40 <? len s)) eqn:Z.
  - rewrite slice_range_eq by lia.
    rewrite (take_all _ (drop 40 s)) by (rewrite len_drop; lia). reflexivity.
  - rewrite len_drop.
    destruct (len s <? 40 + i6_payload_length hd) eqn:T2.
    + ltb_t T2. replace (len s - 40 <? i6_payload_length hd) with true by (symmetry; apply N.ltb_lt; lia). reflexivity.
    + ltb_t T2. replace (len s - 40 <? i6_payload_length hd) with false by (symmetry; apply N.ltb_ge; lia).
      rewrite slice_range_eq by lia. rewrite slice_range_eq by (rewrite ?len_drop; lia).
      rewrite N.sub_0_r, drop_0. replace (40 + i6_payload_length hd - 40) with (i6_payload_length hd) by lia.
      reflexivity.
Qed.

Theorem iph_dispatch_other s b0 : rd s 0 = Some b0 -> shr b0 4 <> 4 -> shr b0 4 <> 6 ->
  iph_from_slice s = Err (C_UNSUPPORTED_VERSION (shr b0 4)).
Proof.
  intros R0 V4 V6. pose proof (rd_Some_lt _ _ _ R0) as L1. unfold iph_from_slice.
  replace (len s =? 0) with false by (symmetry; apply N.eqb_neq; lia). rewrite R0.
  apply N.eqb_neq in V4, V6. rewrite V4, V6. reflexivity.
Qed.

Module XM := EP.ExtChain.Model.
Module XR := EP.ExtChain.ReadModel.
Module XV := EP.ExtChain.ReadView.
Module XRP := EP.ExtChain.ReadProofs.
Module IOM := EP.IoFault.Model.
Module IOS := EP.IoFault.Spec.
Module IOP := EP.IoFault.Proofs.

Lemma limited_is_st r mx ls off ly :
  limited r mx ls off ly = XV.mk_st r 65536 0 (XV.MLim (IOM.lr_new mx ls off ly)).
Proof. reflexivity. Qed.

(* read_exact through a LimitedReader whose budget and whose data both cover n bytes
   (ExtChain.ReadProofs.rd_exact_ok wants budget <= data; not needed for one successful call) *)
Lemma rd_exact_lim d c p r n : 1 <= c -> IOM.lr_read r <= IOM.lr_max r ->
  n <= IOM.lr_max r - IOM.lr_read r -> n <= len d ->
  XR.rd_exact (XV.mk_st d c p (XV.MLim r)) n =
  (IOM.QOk (take n d),
   XV.mk_st (drop n d) c (p + n)
     (XV.MLim (IOM.mk_limrd (IOM.lr_max r) (IOM.lr_source r) (IOM.lr_layer r) (IOM.lr_off r) (IOM.lr_read r + n)))).
Proof.
  intros Hc H1 H2 H3. unfold XR.rd_exact, XV.mk_st. cbn [IOM.rs_lim IOM.rs_src].
  rewrite IOP.lr_read_exact_within by (cbn [IOS.src_chunk]; assumption).
  cbn [IOS.src_data IOS.src_chunk IOS.src_err IOS.src_pulled]. rewrite (leb_true _ _ H3). reflexivity.
Qed.

Lemma start_layer_lim d c p r layer : IOM.lr_read r <= IOM.lr_max r ->
  XR.start_layer true layer (XV.mk_st d c p (XV.MLim r)) =
  (IOM.QOk tt, XV.mk_st d c p (XV.MLim (IOM.mk_limrd (IOM.lr_max r - IOM.lr_read r) (IOM.lr_source r) layer
                                         (IOM.lr_off r + IOM.lr_read r) 0))).
Proof.
  intros H. unfold XR.start_layer, XV.mk_st. cbn [IOM.rs_lim IOM.rs_src].
  unfold IOM.lr_start_layer, IOM.checked_sub. rewrite (leb_true _ _ H). reflexivity.
Qed.

(* IpAuthHeader::read_limited returns what IpAuthHeader::read returns when the budget covers the header *)
Lemma ah_read_limited_of_read d c p r h rest : 1 <= c -> IOM.lr_read r <= IOM.lr_max r ->
  ah_read d = Ok (h, rest) -> ah_header_len h <= IOM.lr_max r - IOM.lr_read r ->
  exists r', ah_read_limited (XV.mk_st d c p (XV.MLim r)) =
             (IOM.QOk h, XV.mk_st rest c (p + ah_header_len h) (XV.MLim r')).
Proof.
  intros Hc Hr RD HB. unfold ah_read in RD. unfold read_exact in RD.
  destruct (len d <? 12) eqn:L12; [discriminate|]. ltb_t L12.
  destruct (take 12 d) as [|b0 [|b1 [|b2 [|b3 [|b4 [|b5 [|b6 [|b7 [|b8 [|b9 [|b10 [|b11 [|x t]]]]]]]]]]]]] eqn:T12;
    try discriminate.
  destruct (b1 <? 1) eqn:Z; [discriminate|].
  set (n := (b1 - 1) * 4) in *.
  destruct (AH_MAX_ICV_LEN <? n) eqn:MX; [discriminate|].
  destruct (len (drop 12 d) <? n) eqn:LN; [discriminate|]. ltb_t LN.
  apply Ok_inj in RD. injection RD as <- <-.
  unfold ah_header_len in HB. cbn [ah_raw_icv_len] in HB. fold n in HB.
  unfold ah_read_limited.
  rewrite start_layer_lim by exact Hr. cbn [XR.qbind].
  rewrite rd_exact_lim; cbn [IOM.lr_read IOM.lr_max]; try lia.
  cbn [XR.qbind]. rewrite T12. rewrite Z. fold n. rewrite MX.
  rewrite rd_exact_lim; cbn [IOM.lr_read IOM.lr_max]; try lia.
  cbn [XR.qbind]. eexists. unfold ah_header_len. cbn [ah_raw_icv_len]. fold n.
  rewrite N.add_assoc. reflexivity.
Qed.

Lemma x4_read_limited_of_read d c p r start e n rest : 1 <= c -> IOM.lr_read r <= IOM.lr_max r ->
  x4_read d start = Ok (e, n, rest) -> x4_header_len e <= IOM.lr_max r - IOM.lr_read r ->
  of_q (x4_read_limited (XV.mk_st d c p (XV.MLim r)) start) = Ok ((e, n), rest).
Proof.
  intros Hc Hr RD HB. unfold x4_read in RD. unfold x4_read_limited.
  destruct (X4_AUTH =? start).
  - destruct (ah_read d) as [[h r1]|err] eqn:A; [|discriminate].
    apply Ok_inj in RD. injection RD as <- <- <-.
    unfold x4_header_len in HB. cbn [x4_auth] in HB.
    destruct (ah_read_limited_of_read d c p r h r1 Hc Hr A HB) as (r' & E). rewrite E. reflexivity.
  - apply Ok_inj in RD. injection RD as <- <- <-. reflexivity.
Qed.

Lemma x4_write_unique e start out b1 b2 :
  x4_write [] e start = Ok b1 -> x4_write out e start = Ok b2 -> b2 = out ++ b1.
Proof.
  unfold x4_write. destruct (x4_auth e) as [h|].
  - destruct (X4_AUTH =? start); [|discriminate]. destruct (ah_to_bytes h); [|discriminate].
    intros H1 H2. apply Ok_inj in H1, H2. subst. reflexivity.
  - intros H1 H2. apply Ok_inj in H1, H2. subst. symmetry. apply app_nil_r.
Qed.

Lemma iph_write_v4 en hd e : wf_ip4 hd = true -> wf_x4 e = true -> x4_linked (i4_protocol hd) e = true ->
  exists ck hb xb, ip4_calc_checksum en hd = Some ck /\ ck < 65536
    /\ ip4_to_bytes (ip4_set_checksum hd ck) = Some hb /\ len hb = ip4_header_len hd
    /\ x4_write [] e (i4_protocol hd) = Ok xb /\ len xb = x4_header_len e
    /\ iph_write en (IpV4 hd e) = (hb ++ xb, XM.Ok tt).
Proof.
  intros W WX LK.
  destruct (ip4_write_checksummed en hd [] W) as (ck & hb & ECK & LCK & ETB & EW & LHB & _). cbn [app] in EW.
  destruct (x4_ser_agree e [] (i4_protocol hd) WX LK) as (xb & EX & LX & _). cbn [app] in EX.
  destruct (x4_ser_agree e hb (i4_protocol hd) WX LK) as (xb2 & EX2 & _ & _).
  pose proof (x4_write_unique _ _ _ _ _ EX EX2) as U.
  exists ck, hb, xb. repeat split; try assumption.
  unfold iph_write. rewrite EW, EX2, U. reflexivity.
Qed.

(* the number behind a linked IPv4 chain *)
Lemma x4_next_header_linked e start : x4_linked start e = true ->
  x4_next_header e start = XM.Ok (x4_final start e).
Proof.
  unfold x4_linked, x4_next_header, x4_final. destruct (x4_auth e) as [a|]; [|reflexivity].
  intros H. ltb_t H. rewrite <- H. reflexivity.
Qed.

Lemma iph_wf_v4 hd e : iph_wf (IpV4 hd e) = true ->
  wf_ip4 hd = true /\ wf_x4 e = true /\ x4_linked (i4_protocol hd) e = true
  /\ ip4_header_len hd + x4_header_len e <= i4_total_len hd.
Proof. unfold iph_wf. intros W. bsplit W. repeat split; try assumption. Qed.

Theorem iph_dec_enc_v4 en hd e : iph_wf (IpV4 hd e) = true ->
  exists w, iph_write en (IpV4 hd e) = (w, XM.Ok tt) /\ len w = iph_header_len (IpV4 hd e)
    /\ (forall payload t, iph_payload_fits (IpV4 hd e) payload t ->
          iph_from_slice (w ++ payload ++ t) = Ok (iph_written en (IpV4 hd e), iph_payload_desc (IpV4 hd e) payload)
          /\ iph_from_ipv4_slice (w ++ payload ++ t)
             = Ok (iph_written en (IpV4 hd e), iph_payload_desc (IpV4 hd e) payload))
    /\ (forall rest, iph_read (w ++ rest) = Ok (iph_written en (IpV4 hd e), iph_final (IpV4 hd e), rest)).
Proof.
  intros WF. destruct (iph_wf_v4 hd e WF) as (W & WX & LK & LEN).
  destruct (iph_write_v4 en hd e W WX LK) as (ck & hb & xb & ECK & LCK & ETB & LHB & EX & LXB & EW).
  pose proof (wf_set_checksum hd ck W LCK) as W2.
  set (hd' := ip4_set_checksum hd ck) in *.
  assert (DEC : forall R, ip4_from_slice (hb ++ R) = Ok (ip4_norm hd', R)).
  { intros R. destruct (ip4_dec_enc hd' R W2) as (e0 & E0 & D & _). rewrite ETB in E0. apply Some_inj in E0.
    subst e0. exact D. }
  assert (XDEC : forall R, x4_from_slice (i4_protocol hd) (xb ++ R) = Ok (x4_norm e, x4_final (i4_protocol hd) e, R)
                           /\ x4_read (xb ++ R) (i4_protocol hd) = Ok (x4_norm e, x4_final (i4_protocol hd) e, R)).
  { intros R. destruct (x4_dec_enc e (i4_protocol hd) R WX LK) as (b & EB & D1 & D2 & _).
    rewrite EX in EB. apply Ok_inj in EB. subst b. split; assumption. }
  assert (WR : iph_written en (IpV4 hd e) = IpV4 (ip4_norm hd') (x4_norm e)).
  { unfold iph_written. rewrite ECK. reflexivity. }
  assert (FIN : iph_final (IpV4 hd e) = x4_final (i4_protocol hd) e).
  { unfold iph_final, iph_next_header. rewrite (x4_next_header_linked _ _ LK). reflexivity. }
  exists (hb ++ xb). split; [exact EW|]. split; [rewrite len_app, LHB, LXB; reflexivity|].
  (* facts about the first byte, through the inversion of Ipv4Header::from_slice *)
  destruct (ip4_from_slice_inv _ _ _ (DEC [])) as (b0 & R0 & V & I & _ & _ & TH & HL & _).
  rewrite app_nil_r in R0, TH.
  assert (HLn : ip4_header_len (ip4_norm hd') = ip4_header_len hd) by reflexivity.
  rewrite HLn in HL.
  assert (L20 : 20 <= len hb) by (rewrite LHB; unfold ip4_header_len; lia).
  assert (THb : ip4_to_header hb = Ok (ip4_norm hd')).
  { rewrite <- TH. f_equal. symmetry. apply take_all. rewrite LHB, HL. lia. }
  split.
  - intros payload t FIT. unfold iph_payload_fits, iph_announced, iph_header_len in FIT.
    assert (S4 : iph_from_ipv4_slice ((hb ++ xb) ++ payload ++ t)
                 = Ok (iph_written en (IpV4 hd e), iph_payload_desc (IpV4 hd e) payload)).
    { rewrite <- app_assoc. unfold iph_from_ipv4_slice. rewrite DEC. cbv zeta.
      rewrite HLn. change (i4_total_len (ip4_norm hd')) with (i4_total_len hd).
      rewrite (leb_true (ip4_header_len hd) (i4_total_len hd)) by lia.
      rewrite !len_app, LXB.
      rewrite (ltb_false (x4_header_len e + (len payload + len t)) (i4_total_len hd - ip4_header_len hd)) by lia.
      rewrite slice_range_eq by (rewrite ?len_app, ?LXB; lia).
      rewrite N.sub_0_r, drop_0.
      replace (take (i4_total_len hd - ip4_header_len hd) (xb ++ payload ++ t)) with (xb ++ payload).
      2:{ rewrite (app_assoc xb payload t). symmetry. apply take_app_len. rewrite len_app, LXB. lia. }
      unfold v4_tail. change (i4_protocol (ip4_norm hd')) with (i4_protocol hd).
      rewrite (proj1 (XDEC payload)). rewrite WR. unfold iph_payload_desc. rewrite FIN. reflexivity. }
    split; [|exact S4]. rewrite <- S4. apply (iph_dispatch_v4 _ b0); [|exact V].
    rewrite <- app_assoc. rewrite Exts6Proofs.rd_app_lt by lia. exact R0.
  - intros rest. rewrite <- app_assoc.
    destruct hb as [|c0 hb'] eqn:EHB; [rewrite len_nil in L20; lia|].
    assert (c0 = b0) by (unfold rd in R0; cbn in R0; congruence). subst c0.
    unfold iph_read. cbn [app]. unfold read_exact at 1. rewrite len_cons.
    rewrite (ltb_false (1 + len (hb' ++ xb ++ rest)) 1) by lia.
    change (take 1 (b0 :: hb' ++ xb ++ rest)) with [b0]. change (drop 1 (b0 :: hb' ++ xb ++ rest)) with (hb' ++ xb ++ rest).
    cbv beta iota zeta. rewrite V. change (4 =? 4) with true. cbv beta iota. rewrite I.
    rewrite len_cons in LHB.
    pose proof (band15_lt b0) as B15.
    rewrite (ltb_false 60 (band b0 15 * 4)) by lia.
    rewrite (read_exact_app' hb' (xb ++ rest)) by lia.
    rewrite THb. change (i4_total_len (ip4_norm hd')) with (i4_total_len hd).
    rewrite (ltb_false (i4_total_len hd) (band b0 15 * 4)) by lia.
    rewrite limited_is_st. change (i4_protocol (ip4_norm hd')) with (i4_protocol hd).
    assert (XHL : x4_header_len (x4_norm e) = x4_header_len e)
      by (unfold x4_header_len, x4_norm; destruct (x4_auth e); reflexivity).
    erewrite x4_read_limited_of_read;
      [ | lia | cbn; lia | exact (proj2 (XDEC rest)) | cbn [IOM.lr_new IOM.lr_max IOM.lr_read]; lia ].
    rewrite WR, FIN. reflexivity.
Qed.

Module XP := EP.ExtChain.Proofs.
Module XS := EP.ExtChain.Spec.

Lemma iph_wf_v6 hd e : iph_wf (IpV6 hd e) = true ->
  wf_ip6 hd = true /\ XM.exts6_valid e = true
  /\ (exists n, XM.next_header e (i6_next_header hd) = XM.Ok n /\ XS.is_ext_number n = false)
  /\ XM.header_len e <= i6_payload_length hd.
Proof.
  unfold iph_wf. intros W. bsplit W. repeat split; try assumption.
  destruct (XM.next_header e (i6_next_header hd)) as [n| | |]; try discriminate.
  exists n. split; [reflexivity|]. destruct (XS.is_ext_number n); [discriminate|reflexivity].
Qed.

Lemma iph_write_v6 en hd e n : XM.exts6_valid e = true -> XM.next_header e (i6_next_header hd) = XM.Ok n ->
  exists xb, XM.write e (i6_next_header hd) = (xb, XM.Ok tt) /\ len xb = XM.header_len e /\ bytes_ok xb
    /\ iph_write en (IpV6 hd e) = (ip6_to_bytes hd ++ xb, XM.Ok tt).
Proof.
  intros V NH. pose proof (XP.write_iff_walk e (i6_next_header hd) V) as WW. rewrite NH in WW.
  destruct (XM.write e (i6_next_header hd)) as [xb r] eqn:EW. cbn [snd] in WW. subst r.
  exists xb. split; [reflexivity|]. split; [eapply XP.write_len; eassumption|].
  split; [pose proof (XP.write_bytes_ok e (i6_next_header hd) V) as B; rewrite EW in B; exact B|].
  unfold iph_write, ip6_write. rewrite EW. reflexivity.
Qed.

Lemma ip6_read_inv r h r' : ip6_read r = Ok (h, r') ->
  exists v0 r1, read_exact r 1 = Ok ([v0], r1) /\ shr v0 4 = 6
    /\ ip6_read_without_version r1 (band v0 15) = Ok (h, r').
Proof.
  unfold ip6_read. destruct (read_exact r 1) as [[value r1]|]; [|discriminate].
  destruct value as [|v0 [|? ?]]; try discriminate.
  destruct (shr v0 4 =? 6) eqn:V; cbn [negb]; [|discriminate]. ltb_t V.
  intros H. exists v0, r1. repeat split; assumption.
Qed.

Lemma view_lim_new d mx ls off ly : XV.view d (XV.MLim (IOM.lr_new mx ls off ly)) = take mx d.
Proof. unfold XV.view, XV.avail, IOM.lr_new. cbn [IOM.lr_max IOM.lr_read]. rewrite N.sub_0_r. reflexivity. Qed.

(* IPv6 read, whatever follows the headers.  The read_limited theorems of ExtChain/ReadProofs.v (`m_ok`)
   want a LimitedReader whose budget lies within the data; the crate's read never looks at the payload.
   The run with budget = exactly the extension headers, where those theorems apply, is by `mono_read6`
   the run with budget = payload_length. *)
Theorem iph_read_any_v6 en hd e : iph_wf (IpV6 hd e) = true ->
  exists w, iph_write en (IpV6 hd e) = (w, XM.Ok tt) /\ len w = iph_header_len (IpV6 hd e)
    /\ (forall rest, bytes_ok rest -> iph_read (w ++ rest) = Ok (IpV6 hd e, iph_final (IpV6 hd e), rest)).
Proof.
  intros WF. destruct (iph_wf_v6 hd e WF) as (W & V & (n & NH & NE) & LEN).
  destruct (iph_write_v6 en hd e n V NH) as (xb & EW & LXB & BXB & EIW).
  pose proof (len_ip6_to_bytes hd W) as LHB.
  assert (XDEC : XM.from_slice (i6_next_header hd) xb = XM.Ok (e, n, [])).
  { pose proof (Exts6Proofs.exts6_dec_enc e (i6_next_header hd) xb n [] V EW NH NE) as X.
    rewrite app_nil_r in X. exact (proj2 X). }
  assert (FIN : iph_final (IpV6 hd e) = n).
  { unfold iph_final, iph_next_header. rewrite NH. reflexivity. }
  exists ((ip6_to_bytes hd) ++ xb). split; [exact EIW|]. split; [rewrite len_app, LHB, LXB; reflexivity|].
  intros rest BR. rewrite <- app_assoc.
  destruct (ip6_read_inv _ _ _ (proj2 (ip6_dec_enc hd (xb ++ rest) W))) as (v0 & r1 & RE & V6 & RW).
  unfold iph_read. rewrite RE. cbv beta iota zeta.
  rewrite V6. change (6 =? 4) with false. change (6 =? 6) with true. cbv iota. rewrite RW.
  (* a LimitedReader whose budget is exactly the extension headers: C12's theorem applies *)
  set (r0 := IOM.lr_new (len xb) IOM.LS_IPV6_PAYLOAD (ip6_header_len hd) IOM.L_IPV6H).
  assert (MOK : XV.m_ok (xb ++ rest) (XV.MLim r0)).
  { cbn [XV.m_ok r0 IOM.lr_new IOM.lr_read IOM.lr_max]. rewrite len_app. lia. }
  assert (BD : bytes_ok (xb ++ rest)) by (apply bytes_ok_app; split; assumption).
  assert (VW : XV.view (xb ++ rest) (XV.MLim r0) = xb).
  { unfold r0. rewrite view_lim_new. apply take_app_len. reflexivity. }
  pose proof XDEC as FS. rewrite <- VW in FS.
  destruct (XRP.read6_eq_from_slice (xb ++ rest) 65536 0 (XV.MLim r0) (i6_next_header hd) e n _
              ltac:(lia) BD MOK FS) as (m' & k & EV & KA & R6 & V' & MOK' & LM).
  cbn [XV.lim_of] in R6.
  assert (K : k = len xb).
  { rewrite VW, app_nil_r in EV. assert (L := f_equal len EV). rewrite len_take in L.
    cbn [XV.avail r0 IOM.lr_new IOM.lr_max IOM.lr_read] in KA. lia. }
  (* the real budget is payload_length >= len xb: same successful run *)
  pose proof (mono_read6 true (i6_next_header hd) (i6_payload_length hd - len xb) _ _ _ R6) as R6'.
  unfold limited.
  replace (IOM.mk_rstate (XR.cursor (xb ++ rest))
             (Some (IOM.lr_new (i6_payload_length hd) IOM.LS_IPV6_PAYLOAD (ip6_header_len hd) IOM.L_IPV6H)))
    with (bump_st (i6_payload_length hd - len xb) (XV.mk_st (xb ++ rest) 65536 0 (XV.MLim r0))).
  2:{ unfold bump_st, XV.mk_st, XR.cursor, r0, IOM.lr_new, bump.
      cbn [IOM.rs_src IOM.rs_lim option_map IOM.lr_max IOM.lr_read IOM.lr_source IOM.lr_layer IOM.lr_off].
      replace (len xb + (i6_payload_length hd - len xb)) with (i6_payload_length hd) by lia. reflexivity. }
  rewrite R6'. unfold of_q, bump_st, XV.mk_st. cbn [IOM.rs_src IOS.src_data].
  rewrite K, drop_app_len by reflexivity. rewrite FIN. reflexivity.
Qed.

Theorem iph_dec_enc_v6 en hd e : iph_wf (IpV6 hd e) = true ->
  exists w, iph_write en (IpV6 hd e) = (w, XM.Ok tt) /\ len w = iph_header_len (IpV6 hd e)
    /\ (forall payload t, iph_payload_fits (IpV6 hd e) payload t ->
          iph_from_slice (w ++ payload ++ t) = Ok (IpV6 hd e, iph_payload_desc (IpV6 hd e) payload)
          /\ iph_from_ipv6_slice (w ++ payload ++ t) = Ok (IpV6 hd e, iph_payload_desc (IpV6 hd e) payload))
    /\ (forall rest, bytes_ok rest -> iph_read_room (IpV6 hd e) rest ->
          iph_read (w ++ rest) = Ok (IpV6 hd e, iph_final (IpV6 hd e), rest)).
Proof.
  intros WF. destruct (iph_wf_v6 hd e WF) as (W & V & (n & NH & NE) & LEN).
  destruct (iph_write_v6 en hd e n V NH) as (xb & EW & LXB & BXB & EIW).
  pose proof (len_ip6_to_bytes hd W) as LHB.
  assert (XDEC : forall R, XM.from_slice (i6_next_header hd) (xb ++ R) = XM.Ok (e, n, R)).
  { intros R. apply (Exts6Proofs.exts6_dec_enc e (i6_next_header hd) xb n R V EW NH NE). }
  assert (FIN : iph_final (IpV6 hd e) = n).
  { unfold iph_final, iph_next_header. rewrite NH. reflexivity. }
  exists ((ip6_to_bytes hd) ++ xb). split; [exact EIW|]. split; [rewrite len_app, LHB, LXB; reflexivity|].
  destruct (ip6_wf_facts hd W) as (_ & _ & PL & _).
  split.
  - intros payload t FIT. unfold iph_payload_fits, iph_announced, iph_header_len in FIT.
    assert (S6 : iph_from_ipv6_slice (((ip6_to_bytes hd) ++ xb) ++ payload ++ t)
                 = Ok (IpV6 hd e, iph_payload_desc (IpV6 hd e) payload)).
    { rewrite <- app_assoc. unfold iph_from_ipv6_slice.
      rewrite (proj1 (ip6_dec_enc hd (xb ++ payload ++ t) W)).
      unfold iph_payload_desc. rewrite FIN. cbn [iph_is_fragmenting_payload].
      rewrite !len_app, LHB, LXB.
      destruct (i6_payload_length hd =? 0) eqn:Z.
      - ltb_t Z. rewrite Z in *. subst t.
        assert (XL0 : XM.header_len e = 0) by lia. rewrite XL0 in *.
        apply len_0_nil in LXB. subst xb. cbn [app]. rewrite app_nil_r. change (0 =? 0) with true.
        cbn [andb len]. change (len (@nil N)) with 0. rewrite N.add_0_r.
        destruct (0 <? len payload) eqn:P.
        + ltb_t P. replace (40 <? 40 + (0 + len payload)) with true by (symmetry; apply N.ltb_lt; lia).
          unfold v6_tail. pose proof (XDEC payload) as X1. cbn [app] in X1. rewrite X1. reflexivity.
        + ltb_t P. assert (len payload = 0) by lia. apply len_0_nil in H. subst payload.
          cbn [len length N.of_nat]. change (40 <? 40 + (0 + 0)) with false. cbv zeta. cbn [andb].
          change (len (@nil N) <? 0) with false. cbv iota.
          change (slice_range [] 0 0) with (Some (@nil N)). cbv iota.
          unfold v6_tail. pose proof (XDEC []) as X1. cbn [app] in X1. rewrite X1. reflexivity.
      - assert (Z' : (0 =? i6_payload_length hd) = false) by (rewrite N.eqb_sym; exact Z). rewrite Z'.
        cbn [andb]. cbv zeta. ltb_t Z.
        rewrite (ltb_false (XM.header_len e + (len payload + len t)) (i6_payload_length hd)) by lia.
        rewrite slice_range_eq by (rewrite ?len_app, ?LXB; lia).
        rewrite N.sub_0_r, drop_0.
        replace (take (i6_payload_length hd) (xb ++ payload ++ t)) with (xb ++ payload).
        2:{ rewrite (app_assoc xb payload t). symmetry. apply take_app_len. rewrite len_app, LXB. lia. }
        unfold v6_tail. rewrite (XDEC payload). reflexivity. }
    split; [|exact S6]. rewrite <- S6.
    destruct (ip6_read_inv _ _ _ (proj2 (ip6_dec_enc hd [] W))) as (v0 & r1 & RE & V6 & _).
    rewrite app_nil_r in RE.
    apply (iph_dispatch_v6 _ v0); [|exact V6].
    unfold read_exact in RE. destruct (len (ip6_to_bytes hd) <? 1); [discriminate|]. apply Ok_inj in RE.
    injection RE as T1 _. rewrite <- app_assoc. subst v0. reflexivity.
  - intros rest BR _. destruct (iph_read_any_v6 en hd e WF) as (w & EW' & _ & RD).
    rewrite EIW in EW'. injection EW' as <-. exact (RD rest BR).
Qed.

Theorem iph_dec_enc en h : iph_wf h = true ->
  exists w, iph_write en h = (w, XM.Ok tt) /\ len w = iph_header_len h
    /\ (forall payload t, iph_payload_fits h payload t ->
          iph_from_slice (w ++ payload ++ t) = Ok (iph_written en h, iph_payload_desc h payload)
          /\ iph_from_version_slice h (w ++ payload ++ t) = Ok (iph_written en h, iph_payload_desc h payload))
    /\ (forall rest, bytes_ok rest -> iph_read_room h rest ->
          iph_read (w ++ rest) = Ok (iph_written en h, iph_final h, rest)).
Proof.
  intros WF. destruct h as [hd e|hd e].
  - destruct (iph_dec_enc_v4 en hd e WF) as (w & A & B & C & D). exists w. repeat split; try assumption.
    + apply (C payload t H).
    + apply (C payload t H).
    + intros rest _ _. apply D.
  - destruct (iph_dec_enc_v6 en hd e WF) as (w & A & B & C & D). exists w. repeat split; try assumption.
    + apply (C payload t H).
    + apply (C payload t H).
Qed.

(* the decoded value is the written one; it equals h (PartialEq) when the checksum field is consistent *)
Theorem iph_written_eq en h : iph_wf h = true -> iph_checksum_ok en h = true -> iph_eq (iph_written en h) h.
Proof.
  intros WF CK. destruct h as [hd e|hd e]; [|split; reflexivity].
  destruct (iph_wf_v4 hd e WF) as (W & WX & LK & _).
  unfold iph_checksum_ok in CK. unfold iph_written, iph_eq.
  destruct (ip4_calc_checksum en hd) as [ck|]; [|discriminate]. ltb_t CK.
  assert (E : ip4_set_checksum hd ck = hd) by (destruct hd; cbn in *; subst; reflexivity).
  rewrite E. split.
  - destruct (ip4_dec_enc hd [] W) as (_ & _ & _ & _ & Q). exact Q.
  - destruct (x4_dec_enc e (i4_protocol hd) [] WX LK) as (_ & _ & _ & _ & Q). exact Q.
Qed.

Lemma x4_write_iff_walk e start out : wf_x4 e = true ->
  match x4_next_header e start with
  | XM.Ok n => exists b, x4_write out e start = Ok (out ++ b) /\ len b = x4_header_len e
  | XM.Err x => x = XM.ExtNotReferenced XM.AUTH /\ x4_write out e start = Err (EContent 0)
  | _ => False
  end.
Proof.
  unfold wf_x4, x4_next_header, x4_write, x4_header_len. destruct (x4_auth e) as [h|]; intros W.
  - rewrite (N.eqb_sym X4_AUTH start). destruct (start =? X4_AUTH).
    + destruct (ah_ser_agree h [] W) as (b & EB & _ & LB). rewrite EB. exists b. split; [reflexivity|exact LB].
    + split; reflexivity.
  - exists []. split; [symmetry; f_equal; apply app_nil_r|reflexivity].
Qed.

Theorem iph_write_iff_walk en h : iph_parts_wf h = true ->
  match iph_next_header h with
  | XM.Ok n => snd (iph_write en h) = XM.Ok tt /\ len (fst (iph_write en h)) = iph_header_len h
  | XM.Err x => snd (iph_write en h) = XM.Err x
  | XM.Panic | XM.OutOfFuel => False
  end.
Proof.
  intros PW. destruct h as [hd e|hd e]; unfold iph_parts_wf in PW; apply andb_true_iff in PW.
  - destruct PW as [W WX].
    destruct (ip4_write_checksummed en hd [] W) as (ck & hb & ECK & LCK & ETB & EW & LHB & _). cbn [app] in EW.
    pose proof (x4_write_iff_walk e (i4_protocol hd) hb WX) as XW.
    unfold iph_next_header, iph_write. rewrite EW.
    destruct (x4_next_header e (i4_protocol hd)) as [n|x| |]; cbn [XM.map_err]; try contradiction.
    + destruct XW as (b & EB & LB). rewrite EB. cbn [fst snd]. split; [reflexivity|].
      rewrite len_app, LHB, LB. reflexivity.
    + destruct XW as (-> & EB). rewrite EB. reflexivity.
  - destruct PW as [W V].
    pose proof (XP.write_iff_walk e (i6_next_header hd) V) as WW.
    unfold iph_next_header, iph_write, ip6_write. cbn [app].
    destruct (XM.write e (i6_next_header hd)) as [xb r] eqn:EW. cbn [snd] in WW.
    destruct (XM.next_header e (i6_next_header hd)) as [n|x| |]; cbn [XM.map_err fst snd]; try contradiction.
    + subst r. split; [reflexivity|]. rewrite len_app, (len_ip6_to_bytes hd W), (XP.write_len e _ xb V EW). reflexivity.
    + subst r. reflexivity.
Qed.

(* Ipv4Header::write = to_bytes with bytes 10-11 replaced by the computed checksum *)
Lemma ip4_set_checksum_bytes h ck e0 : wf_ip4 h = true -> ck < 65536 -> ip4_to_bytes h = Some e0 ->
  ip4_to_bytes (ip4_set_checksum h ck) = Some (take 10 e0 ++ u16_to_be ck ++ drop 12 e0).
Proof.
  intros W LCK E0. pose proof (wf_set_checksum h ck W LCK) as W2.
  destruct (ip4_to_bytes_wf h W) as (f & EF & ET). rewrite ET in E0. apply Some_inj in E0. subst e0.
  destruct (ip4_to_bytes_wf _ W2) as (f2 & EF2 & ET2). rewrite ET2. f_equal.
  destruct (fixed_wf h (i4_header_checksum h) W) as (f' & EF' & _ & s0 & s1 & s2 & s3 & d0 & d1 & d2 & d3 & ES & ED & FX).
  rewrite EF in EF'. apply Some_inj in EF'. subst f'.
  destruct (fixed_wf (ip4_set_checksum h ck) ck W2) as (f3 & EF3 & _ & t0 & t1 & t2 & t3 & u0 & u1 & u2 & u3 & ES' & ED' & FX').
  cbn [ip4_set_checksum i4_header_checksum] in EF2. rewrite EF2 in EF3. apply Some_inj in EF3. subst f3.
  cbn [ip4_set_checksum i4_source i4_destination] in ES', ED'. rewrite ES in ES'. rewrite ED in ED'.
  inversion ES'; inversion ED'; subst t0 t1 t2 t3 u0 u1 u2 u3.
  rewrite FX, FX'. reflexivity.
Qed.

(* how the bytes `write` emits for a decoded value relate to the bytes that were consumed *)
Definition iph_reencodes (en : endian) (h : IpHeaders) (cons w : bytes) : Prop :=
  match h with
  | IpV4 hd e =>
    exists e0 ck xb,
      ip4_to_bytes hd = Some e0 /\ agree (ip4_keep_mask (ip4_header_len hd)) e0 (take (ip4_header_len hd) cons)
      /\ ip4_calc_checksum en hd = Some ck
      /\ w = (take 10 e0 ++ u16_to_be ck ++ drop 12 e0) ++ xb
      /\ x4_write [] e (i4_protocol hd) = Ok xb
      /\ agree (x4_keep_mask e) xb (drop (ip4_header_len hd) cons)
  | IpV6 hd e =>
    exists xb, w = ip6_to_bytes hd ++ xb /\ take 40 cons = ip6_to_bytes hd
      /\ XM.write e (i6_next_header hd) = (xb, XM.Ok tt) /\ Exts6Proofs.hdr_eq xb (drop 40 cons)
  end.

Lemma x4_norm_header_len e : x4_header_len (x4_norm e) = x4_header_len e.
Proof. unfold x4_header_len, x4_norm. destruct (x4_auth e); reflexivity. Qed.

Lemma agree_len k a b : agree k a b -> len a = len b.
Proof. intros (A & B & _). congruence. Qed.

(* What a successful decode went through: the IP header decoder, the length checks, and the
   extension decoder (v4_tail / v6_tail) on the announced payload. *)
Lemma v4_tail_inv hd A h p : v4_tail hd A = Ok (h, p) ->
  exists e n r, x4_from_slice (i4_protocol hd) A = Ok (e, n, r) /\ h = IpV4 hd e
    /\ p = {| ipp_ip_number := n; ipp_fragmented := ip4_is_fragmenting_payload hd;
              ipp_len_source := LsIpv4HeaderTotalLen; ipp_payload := r |}.
Proof.
  unfold v4_tail. destruct (x4_from_slice (i4_protocol hd) A) as [[[e n] r]|]; [|discriminate].
  intros H. apply Ok_inj in H. injection H as <- <-. exists e, n, r. repeat split.
Qed.

Lemma v6_tail_shape hd A ls h p : v6_tail hd A ls = Ok (h, p) -> exists e, h = IpV6 hd e.
Proof.
  unfold v6_tail. destruct (of_x6 _) as [[[e n] r]|]; [|discriminate].
  intros H. apply Ok_inj in H. injection H as <- _. eauto.
Qed.

Lemma iph_from_ipv4_slice_inv bs h p : iph_from_ipv4_slice bs = Ok (h, p) ->
  exists hd hrest, ip4_from_slice bs = Ok (hd, hrest)
    /\ ip4_header_len hd <= i4_total_len hd /\ i4_total_len hd - ip4_header_len hd <= len hrest
    /\ v4_tail hd (take (i4_total_len hd - ip4_header_len hd) hrest) = Ok (h, p).
Proof.
  unfold iph_from_ipv4_slice. destruct (ip4_from_slice bs) as [[hd hrest]|]; [|discriminate]. cbv zeta.
  destruct (ip4_header_len hd <=? i4_total_len hd) eqn:T1; [|discriminate]. ltb_t T1.
  destruct (len hrest <? i4_total_len hd - ip4_header_len hd) eqn:T2; [discriminate|]. ltb_t T2.
  rewrite slice_range_0 by exact T2. intros H. exists hd, hrest. auto.
Qed.

(* the extension area A is all of the rest (payload length 0 in a longer slice: taken for a
   jumbogram) or its first payload_length bytes *)
Lemma iph_from_ipv6_slice_inv bs h p : iph_from_ipv6_slice bs = Ok (h, p) ->
  exists hd hrest A t ls, ip6_from_slice bs = Ok (hd, hrest) /\ hrest = A ++ t /\ v6_tail hd A ls = Ok (h, p)
    /\ (((0 =? i6_payload_length hd) && (40 <? len bs) = true /\ t = [] /\ ls = LsSlice)
        \/ ((0 =? i6_payload_length hd) && (40 <? len bs) = false /\ len A = i6_payload_length hd
            /\ ls = LsIpv6HeaderPayloadLen)).
Proof.
  unfold iph_from_ipv6_slice. destruct (ip6_from_slice bs) as [[hd hrest]|]; [|discriminate].
  destruct ((0 =? i6_payload_length hd) && (40 <? len bs)) eqn:Z.
  - intros H. exists hd, hrest, hrest, [], LsSlice. rewrite app_nil_r. repeat split; try assumption. left. auto.
  - cbv zeta. destruct (len hrest <? i6_payload_length hd) eqn:T; [discriminate|]. ltb_t T.
    rewrite slice_range_0 by exact T. intros H.
    exists hd, hrest, (take (i6_payload_length hd) hrest), (drop (i6_payload_length hd) hrest), LsIpv6HeaderPayloadLen.
    rewrite take_drop, len_take. repeat split; try assumption. right. repeat split; [exact Z|lia].
Qed.

Theorem iph_enc_dec_v4 en bs h p : bytes_ok bs -> iph_from_ipv4_slice bs = Ok (h, p) ->
  iph_wf h = true
  /\ exists w cons t, iph_write en h = (w, XM.Ok tt) /\ len w = iph_header_len h
      /\ bs = cons ++ ipp_payload p ++ t /\ len cons = iph_header_len h
      /\ iph_payload_fits h (ipp_payload p) t /\ p = iph_payload_desc h (ipp_payload p)
      /\ iph_reencodes en h cons w.
Proof.
  intros OK H. destruct (iph_from_ipv4_slice_inv bs h p H) as (hd & hrest & D4 & T1 & T2 & TL).
  destruct (v4_tail_inv _ _ _ _ TL) as (e & nx & rest' & DX & -> & ->). cbn [ipp_payload].
  destruct (ip4_enc_dec bs hd hrest OK D4) as (W & NM & e0 & E0 & SPL & AG & _).
  set (hl := ip4_header_len hd) in *. set (pl := i4_total_len hd - hl) in *.
  assert (OKH : bytes_ok hrest).
  { rewrite SPL in OK. apply bytes_ok_app in OK. tauto. }
  destruct (x4_enc_dec (i4_protocol hd) (take pl hrest) e nx rest' (bytes_ok_take _ _ OKH) DX)
    as (WX & NX & LK & FN & xb & EXB & SPX & AGX & _).
  set (xl := x4_header_len e) in *.
  assert (LA : len (take pl hrest) = pl) by (rewrite len_take; lia).
  assert (LXB : len xb = xl).
  { destruct (x4_ser_agree e [] (i4_protocol hd) WX LK) as (b & EB & LB & _). cbn [app] in EB.
    rewrite EXB in EB. apply Ok_inj in EB. subst b. exact LB. }
  assert (LTX : len (take xl (take pl hrest)) = xl).
  { rewrite <- (agree_len _ _ _ AGX). exact LXB. }
  assert (LR : xl + len rest' = pl).
  { assert (L := f_equal len SPX). rewrite len_app, LTX, LA in L. lia. }
  assert (LHC : len (take hl bs) = hl).
  { rewrite <- (agree_len _ _ _ AG). destruct (ip4_ser_agree hd [] W) as (e1 & E1 & _ & L1).
    rewrite E0 in E1. apply Some_inj in E1. subst e1. exact L1. }
  assert (WF : iph_wf (IpV4 hd e) = true).
  { unfold iph_wf. rewrite W, WX, LK. cbn [andb]. apply N.leb_le. fold hl xl. lia. }
  split; [exact WF|].
  destruct (iph_write_v4 en hd e W WX LK) as (ck & hb & xb2 & ECK & LCK & ETB & LHB & EX2 & LX2 & EW).
  rewrite EXB in EX2. apply Ok_inj in EX2. subst xb2.
  exists (hb ++ xb), (take hl bs ++ take xl (take pl hrest)), (drop pl hrest).
  split; [exact EW|]. split; [rewrite len_app, LHB, LXB; reflexivity|].
  split.
  { rewrite <- app_assoc. rewrite SPL at 1. f_equal. rewrite (app_assoc _ rest'). rewrite <- SPX.
    symmetry. apply take_drop. }
  split; [rewrite len_app, LHC, LTX; reflexivity|].
  split; [unfold iph_payload_fits, iph_announced, iph_header_len; fold hl xl; lia|].
  split.
  { unfold iph_payload_desc. cbn [ipp_payload iph_is_fragmenting_payload].
    unfold iph_final, iph_next_header. rewrite (x4_next_header_linked _ _ LK). cbn [XM.map_err]. rewrite FN.
    reflexivity. }
  unfold iph_reencodes. exists e0, ck, xb.
  rewrite (ip4_set_checksum_bytes hd ck e0 W LCK E0) in ETB. apply Some_inj in ETB.
  fold hl. rewrite take_app_len by (symmetry; exact LHC). rewrite drop_app_len by (symmetry; exact LHC).
  split; [exact E0|]. split; [exact AG|]. split; [exact ECK|]. split; [rewrite <- ETB; reflexivity|].
  split; [exact EXB|exact AGX].
Qed.

Lemma of_x6_ok {A} (r : XM.res XM.hdr_slice_error A) a : of_x6 r = Ok a -> r = XM.Ok a.
Proof.
  destruct r as [x|[l| |]| |]; cbn; intros H; try discriminate. apply Ok_inj in H. subst. reflexivity.
Qed.

Lemma v6_tail_enc_dec hd A ls h p : bytes_ok A -> v6_tail hd A ls = Ok (h, p) ->
  exists e n rest' xb cons',
    h = IpV6 hd e
    /\ p = {| ipp_ip_number := n; ipp_fragmented := XM.is_fragmenting_payload e; ipp_len_source := ls;
              ipp_payload := rest' |}
    /\ XM.exts6_valid e = true /\ XM.write e (i6_next_header hd) = (xb, XM.Ok tt)
    /\ XM.next_header e (i6_next_header hd) = XM.Ok n
    /\ A = cons' ++ rest' /\ Exts6Proofs.hdr_eq xb cons' /\ len xb = XM.header_len e /\ len cons' = XM.header_len e
    /\ (forall t ls', v6_tail hd (xb ++ t) ls' =
          Ok (IpV6 hd e, {| ipp_ip_number := n; ipp_fragmented := XM.is_fragmenting_payload e;
                            ipp_len_source := ls'; ipp_payload := t |})).
Proof.
  intros OK H. unfold v6_tail in H.
  destruct (of_x6 (XM.from_slice (i6_next_header hd) A)) as [[[e n] rest']|] eqn:D; [|discriminate].
  apply of_x6_ok in D. apply Ok_inj in H. injection H as <- <-.
  destruct (Exts6Proofs.exts6_enc_dec (i6_next_header hd) A e n rest' OK D)
    as (V & xb & cons' & EW & NH & SP & HE & LX & RE).
  exists e, n, rest', xb, cons'. repeat split; try assumption.
  - rewrite <- (Exts6Proofs.hdr_eq_len _ _ HE). exact LX.
  - intros t ls'. unfold v6_tail. rewrite (RE t). reflexivity.
Qed.

Theorem iph_enc_dec_v6 en bs h p : bytes_ok bs -> iph_from_ipv6_slice bs = Ok (h, p) ->
  iph_parts_wf h = true /\ iph_next_header h = XM.Ok (ipp_ip_number p)
  /\ exists w cons t, iph_write en h = (w, XM.Ok tt) /\ len w = iph_header_len h
      /\ bs = cons ++ ipp_payload p ++ t /\ len cons = iph_header_len h
      /\ iph_reencodes en h cons w
      /\ iph_from_ipv6_slice (w ++ ipp_payload p ++ t) = Ok (h, p).
Proof.
  intros OK H. destruct (iph_from_ipv6_slice_inv bs h p H) as (hd & hrest & A & t & ls & D6 & SPA & TL & CASE).
  destruct (ip6_enc_dec bs hd hrest OK D6) as (W & SPL & L40 & _).
  assert (OKA : bytes_ok A).
  { rewrite SPL, SPA in OK. apply bytes_ok_app in OK. destruct OK as [_ OK]. apply bytes_ok_app in OK. tauto. }
  (* decoding again with another extension area of the same length in front of t *)
  assert (RE : forall A', len A' = len A -> iph_from_ipv6_slice (ip6_to_bytes hd ++ A' ++ t) = v6_tail hd A' ls).
  { intros A' LA. unfold iph_from_ipv6_slice. rewrite (proj1 (ip6_dec_enc hd _ W)).
    assert (LL : len (ip6_to_bytes hd ++ A' ++ t) = len bs).
    { rewrite SPL, SPA, !len_app, LA. reflexivity. }
    rewrite LL. destruct CASE as [(Z & -> & ->)|(Z & LA' & ->)]; rewrite Z.
    - rewrite app_nil_r. reflexivity.
    - cbv zeta. rewrite len_app, LA, LA', (ltb_false _ (i6_payload_length hd)) by lia.
      rewrite slice_range_0 by (rewrite len_app; lia). rewrite take_app_len by lia. reflexivity. }
  destruct (v6_tail_enc_dec hd A ls h p OKA TL) as (e & n & rest' & xb & cons' & -> & -> & V & EW & NH & SP & HE & LX & LC & RT).
  cbn [ipp_payload ipp_ip_number].
  split; [unfold iph_parts_wf; rewrite W, V; reflexivity|].
  split; [unfold iph_next_header; rewrite NH; reflexivity|].
  exists (ip6_to_bytes hd ++ xb), (ip6_to_bytes hd ++ cons'), t.
  split; [unfold iph_write, ip6_write; rewrite EW; reflexivity|].
  split; [unfold iph_header_len; rewrite len_app, L40, LX; reflexivity|].
  split; [rewrite <- app_assoc; rewrite SPL at 1; f_equal; rewrite SPA, SP, <- app_assoc; reflexivity|].
  split; [unfold iph_header_len; rewrite len_app, L40, LC; reflexivity|].
  split.
  { unfold iph_reencodes. exists xb. split; [reflexivity|].
    rewrite take_app_len by (symmetry; exact L40). rewrite drop_app_len by (symmetry; exact L40).
    repeat split; assumption. }
  rewrite <- app_assoc. rewrite (app_assoc xb rest' t). rewrite RE.
  - apply RT.
  - rewrite SP, !len_app, LX, LC. reflexivity.
Qed.

Lemma iph_from_slice_version bs r : iph_from_slice bs = Ok r ->
  exists b0, rd bs 0 = Some b0 /\
    ((shr b0 4 = 4 /\ iph_from_ipv4_slice bs = Ok r) \/ (shr b0 4 = 6 /\ iph_from_ipv6_slice bs = Ok r)).
Proof.
  intros H. pose proof H as H0. unfold iph_from_slice in H0.
  destruct (len bs =? 0); [discriminate|]. destruct (rd bs 0) as [b0|] eqn:R0; [|discriminate].
  exists b0. split; [reflexivity|].
  destruct (shr b0 4 =? 4) eqn:V4.
  - ltb_t V4. left. split; [exact V4|]. rewrite <- (iph_dispatch_v4 bs b0 R0 V4). exact H.
  - destruct (shr b0 4 =? 6) eqn:V6; [|discriminate].
    ltb_t V6. right. split; [exact V6|]. rewrite <- (iph_dispatch_v6 bs b0 R0 V6). exact H.
Qed.

Lemma ip6_first_byte hd R : wf_ip6 hd = true ->
  exists v0, rd (ip6_to_bytes hd ++ R) 0 = Some v0 /\ shr v0 4 = 6.
Proof.
  intros W. destruct (ip6_read_inv _ _ _ (proj2 (ip6_dec_enc hd [] W))) as (v0 & r1 & RE & V6 & _).
  rewrite app_nil_r in RE. exists v0. split; [|exact V6].
  unfold read_exact in RE. destruct (len (ip6_to_bytes hd) <? 1); [discriminate|]. apply Ok_inj in RE.
  injection RE as T1 _. subst v0. reflexivity.
Qed.

Theorem iph_enc_dec en bs h p : bytes_ok bs -> iph_from_slice bs = Ok (h, p) ->
  iph_parts_wf h = true /\ iph_next_header h = XM.Ok (ipp_ip_number p)
  /\ exists w cons t, iph_write en h = (w, XM.Ok tt) /\ len w = iph_header_len h
      /\ bs = cons ++ ipp_payload p ++ t /\ len cons = iph_header_len h
      /\ iph_reencodes en h cons w
      /\ iph_from_slice (w ++ ipp_payload p ++ t) = Ok (iph_written en h, p).
Proof.
  intros OK H. destruct (iph_from_slice_version bs _ H) as (b0 & R0 & [[V D]|[V D]]).
  - destruct (iph_enc_dec_v4 en bs h p OK D) as (WF & w & cons & t & EW & LW & SP & LC & FIT & PD & RE).
    assert (exists hd e, h = IpV4 hd e) as (hd & e & ->).
    { destruct (iph_from_ipv4_slice_inv bs h p D) as (hd & hr & _ & _ & _ & TL).
      destruct (v4_tail_inv _ _ _ _ TL) as (e & _ & _ & _ & -> & _). eauto. }
    destruct (iph_wf_v4 hd e WF) as (W & WX & LK & _).
    split; [unfold iph_parts_wf; rewrite W, WX; reflexivity|].
    split.
    { rewrite PD. unfold iph_payload_desc, iph_final. cbn [ipp_ip_number].
      unfold iph_next_header. rewrite (x4_next_header_linked _ _ LK). reflexivity. }
    exists w, cons, t. repeat split; try assumption.
    destruct (iph_dec_enc_v4 en hd e WF) as (w' & EW' & _ & C & _). rewrite EW in EW'. injection EW' as <-.
    rewrite PD at 2. apply (C _ _ FIT).
  - destruct (iph_enc_dec_v6 en bs h p OK D) as (PW & NH & w & cons & t & EW & LW & SP & LC & RE & RD).
    split; [exact PW|]. split; [exact NH|]. exists w, cons, t. repeat split; try assumption.
    destruct (iph_from_ipv6_slice_inv bs h p D) as (hd & hr & A & t' & ls & _ & _ & TL & _).
    destruct (v6_tail_shape _ _ _ _ _ TL) as (e & ->).
    unfold iph_written. rewrite <- RD.
    destruct RE as (xb & -> & _). unfold iph_parts_wf in PW. apply andb_true_iff in PW. destruct PW as [W _].
    rewrite <- app_assoc. destruct (ip6_first_byte hd (xb ++ ipp_payload p ++ t) W) as (v0 & RV & V6).
    apply (iph_dispatch_v6 _ v0 RV V6).
Qed.
