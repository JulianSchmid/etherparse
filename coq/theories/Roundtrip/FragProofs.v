(* Roundtrip/FragProofs.v -- C08 for Ipv6FragmentHeader *)
From EP Require Import Base.Bytes Roundtrip.Common Roundtrip.CommonProofs Roundtrip.Framed Roundtrip.Frag Roundtrip.Spec.
From Coq Require Import ZArith Lia ZifyN.
Local Open Scope N_scope.

(* The u16 at octets 2..3 of the header: the offset in the upper 13 bits, two reserved bits, the M
   flag in bit 0.  Writing it (frag_word) is plain arithmetic below 2^13; reading it back from any two
   octets and writing it again clears the reserved bits (mask 249 on octet 3). *)
Lemma land_249 b : b < 256 -> N.land b 249 = b / 8 * 8 + b mod 2.
Proof.
  intros H. apply N.eqb_eq. revert b H.
  apply (all_byte (fun b => N.land b 249 =? b / 8 * 8 + b mod 2)). vm_compute. reflexivity.
Qed.

Lemma frag_word_sum fo mf : fo < 8192 -> frag_word fo mf = fo * 8 + bit mf.
Proof.
  intros H. unfold frag_word, bor, shl16.
  rewrite N.mod_small by (rewrite N.shiftl_mul_pow2; change (2 ^ 3) with 8; lia).
  apply (lor_shiftl_low fo 3). destruct mf; reflexivity.
Qed.

Lemma frag_word_facts fo mf : fo < 8192 ->
  let w := frag_word fo mf in
  w < 65536 /\ shr w 3 = fo /\ nz (band (w mod 256) 1) = mf /\ w = fo * 8 + bit mf.
Proof.
  intros H w. assert (E : w = fo * 8 + bit mf) by (apply frag_word_sum, H). clearbody w.
  rewrite nz_band_1, shr_div. change (2 ^ 3) with 8.
  subst w. repeat split.
  - destruct mf; cbn [bit]; lia.
  - destruct mf; cbn [bit]; dmlia.
  - destruct mf; cbn [bit]; [apply N.eqb_eq|apply N.eqb_neq]; dmlia.
Qed.

Lemma frag_word_reencode b2 b3 : b2 < 256 -> b3 < 256 ->
  let fo := shr (be16 b2 b3) 3 in
  let w := frag_word fo (nz (band b3 1)) in
  fo < 8192 /\ (w / 256) mod 256 = b2 /\ w mod 256 = N.land b3 249.
Proof.
  intros H2 H3 fo.
  assert (E : fo = (b2 * 256 + b3) / 8) by apply shr_div.
  clearbody fo. assert (F : fo < 8192) by dmlia.
  cbv zeta. rewrite (frag_word_sum _ _ F), nz_band_1, (land_249 b3 H3).
  split; [exact F|]. clear F.
  destruct (b3 mod 2 =? 1) eqn:M; [apply N.eqb_eq in M|apply N.eqb_neq in M]; cbn [bit]; split; dmlia.
Qed.

Lemma wf_frag_iff h : wf_frag h = true <->
  fr_next_header h < 256 /\ fr_fragment_offset h < 8192 /\ fr_identification h < 4294967296.
Proof. unfold wf_frag. rewrite !andb_true_iff, !N.ltb_lt. tauto. Qed.

Lemma len_frag_to_bytes h : len (frag_to_bytes h) = 8.
Proof. reflexivity. Qed.

Theorem frag_ser_agree h out :
  frag_write out h = out ++ frag_to_bytes h /\ len (frag_to_bytes h) = frag_header_len h.
Proof. split; reflexivity. Qed.

Lemma frag_to_header_enc h : wf_frag h = true -> frag_to_header (frag_to_bytes h) = Ok h.
Proof.
  intros W. destruct (proj1 (wf_frag_iff h) W) as (R1 & R2 & R3).
  destruct (frag_word_facts (fr_fragment_offset h) (fr_more_fragments h) R2) as (W1 & W2 & W3 & _).
  cbv zeta in *. unfold frag_to_bytes, u16_to_be, u32_to_be. cbn [app]. unfold frag_to_header.
  rewrite (u16_be_roundtrip _ W1), W2, W3, (u32_be_roundtrip _ R3). destruct h. reflexivity.
Qed.

(* any 8 bytes decode to a well-formed header that re-encodes to them up to the reserved bits *)
Lemma frag_to_header_inv hs h : bytes_ok hs -> len hs = 8 -> frag_to_header hs = Ok h ->
  wf_frag h = true /\ agree frag_keep_mask (frag_to_bytes h) hs.
Proof.
  intros OK L. revert OK h. pattern hs. apply (all_lists_len 8); [|exact L]. cbn [all_lists].
  intros b0 b1 b2 b3 b4 b5 b6 b7 OK h H. unfold frag_to_header in H. apply Ok_inj in H. subst h.
  bytes_ok_split OK. destruct (frag_word_reencode b2 b3 B1 B2) as (Q3 & Q1 & Q2). cbv zeta in *. split.
  - apply wf_frag_iff. cbn [fr_next_header fr_fragment_offset fr_identification].
    pose proof (be32_bound b4 b5 b6 b7 B3 B4 B5 B6). auto.
  - apply agree_of_masked; [reflexivity|].
    unfold frag_to_bytes. cbn [fr_next_header fr_fragment_offset fr_more_fragments fr_identification].
    rewrite (u32_to_be_be32 b4 b5 b6 b7 B3 B4 B5 B6). unfold u16_to_be. rewrite Q1, Q2.
    unfold frag_keep_mask. cbn [app masked].
    rewrite !land_255 by assumption. rewrite N.land_0_r. reflexivity.
Qed.

(* the rest is cut off before the fields are decoded: the same function as Framed.framed *)
Lemma frag_from_slice_framed s : frag_from_slice s = framed 8 frag_to_header s.
Proof.
  unfold frag_from_slice, frag_slice_from_slice, framed, slice_from. destruct (len s <? 8) eqn:L; [reflexivity|].
  apply N.ltb_ge in L. rewrite (proj2 (N.leb_le _ _) L). reflexivity.
Qed.

Theorem frag_dec_enc h rest : wf_frag h = true ->
  frag_from_slice (frag_to_bytes h ++ rest) = Ok (h, rest) /\ frag_read (frag_to_bytes h ++ rest) = Ok (h, rest).
Proof.
  intros W. pose proof (frag_to_header_enc h W) as HD. split.
  - rewrite frag_from_slice_framed. apply framed_app; [reflexivity|exact HD].
  - unfold frag_read. rewrite read_exact_app, HD by reflexivity. reflexivity.
Qed.

Theorem frag_enc_dec bs h rest : bytes_ok bs -> frag_from_slice bs = Ok (h, rest) ->
  wf_frag h = true /\ bs = take 8 bs ++ rest
  /\ agree frag_keep_mask (frag_to_bytes h) (take 8 bs)
  /\ frag_from_slice (frag_to_bytes h) = Ok (h, []).
Proof.
  intros OK H. rewrite frag_from_slice_framed in H. apply framed_inv in H. destruct H as (L & H & ->).
  destruct (frag_to_header_inv (take 8 bs) h) as [W A]; [apply bytes_ok_take, OK|rewrite len_take; lia|exact H|].
  split; [exact W|]. split; [symmetry; apply take_drop|]. split; [exact A|].
  destruct (frag_dec_enc h [] W) as [D _]. rewrite app_nil_r in D. exact D.
Qed.

Theorem frag_spec h : wf_frag h = true ->
  frag_to_bytes h = frag_layout (fr_next_header h) (fr_fragment_offset h) (fr_more_fragments h) (fr_identification h).
Proof.
  intros W. destruct (proj1 (wf_frag_iff h) W) as (R1 & R2 & R3).
  destruct (frag_word_facts (fr_fragment_offset h) (fr_more_fragments h) R2) as (_ & _ & _ & W4). cbv zeta in W4.
  unfold frag_to_bytes, frag_layout. rewrite W4. reflexivity.
Qed.
