(* Roundtrip/GrecProofs.v -- C08 for igmp::ReportGroupRecordV3Header *)
From EP Require Import Base.Bytes.
From EP Require Import CtlMsg.Spec CtlMsg.Model CtlMsg.Proofs.
From EP Require Import Roundtrip.Common Roundtrip.CommonProofs Roundtrip.Msg8 Roundtrip.Grec.
From Coq Require Import ZArith Lia ZifyN.
Local Open Scope N_scope.

Lemma wf_grec_facts g : wf_grec g = true ->
  record_type g < 256 /\ aux_data_len g < 256 /\ gr_num_of_sources g < 65536 /\
  m0 g < 256 /\ m1 g < 256 /\ m2 g < 256 /\ m3 g < 256.
Proof. unfold wf_grec. intros W. bsplit W. repeat split; assumption. Qed.

Theorem grec_ser_agree g : len (grec_to_bytes g) = grec_len.
Proof. reflexivity. Qed.

Lemma grec_fs_8 t a n0 n1 x0 x1 x2 x3 rest :
  grec_from_slice (t :: a :: n0 :: n1 :: x0 :: x1 :: x2 :: x3 :: rest) =
  Ok (mkGroupRecord t a (be16 n0 n1) x0 x1 x2 x3, rest).
Proof.
  unfold grec_from_slice. rewrite group_record_eq. unfold group_record. rewrite len8.
  replace (8 + len rest <? 8) with false by (symmetry; apply N.ltb_ge; lia). reflexivity.
Qed.

Theorem grec_dec_enc g rest : wf_grec g = true ->
  grec_from_slice (grec_to_bytes g ++ rest) = Ok (g, rest).
Proof.
  intros W. destruct (wf_grec_facts g W) as (R1 & R2 & R3 & R4 & R5 & R6 & R7).
  unfold grec_to_bytes, u16_to_be. cbn [app]. rewrite grec_fs_8, u16_be_roundtrip by assumption.
  destruct g. reflexivity.
Qed.

Theorem grec_enc_dec bs g rest : bytes_ok bs -> grec_from_slice bs = Ok (g, rest) ->
  wf_grec g = true /\ bs = take 8 bs ++ rest /\ grec_to_bytes g = take 8 bs
  /\ agree grec_keep_mask (grec_to_bytes g) (take 8 bs)
  /\ grec_from_slice (grec_to_bytes g) = Ok (g, []).
Proof.
  intros OK H.
  destruct (len bs <? 8) eqn:E8.
  { unfold grec_from_slice, Igmp.group_record_from_slice in H. rewrite E8 in H. discriminate. }
  destruct (len_ge_cons8 bs E8) as (t & a & n0 & n1 & x0 & x1 & x2 & x3 & r & ->).
  pose proof OK as OK'. bytes_ok_split OK'.
  rewrite grec_fs_8 in H. apply Ok_inj in H. apply pair_equal_spec in H. destruct H as [<- <-].
  change (take 8 (t :: a :: n0 :: n1 :: x0 :: x1 :: x2 :: x3 :: r)) with [t; a; n0; n1; x0; x1; x2; x3].
  assert (WF : wf_grec (mkGroupRecord t a (be16 n0 n1) x0 x1 x2 x3) = true).
  { unfold wf_grec. cbn [record_type aux_data_len gr_num_of_sources m0 m1 m2 m3].
    pose proof (be16_bound n0 n1 B1 B2) as X. apply N.ltb_lt in X, B, B0, B3, B4, B5, B6.
    rewrite X, B, B0, B3, B4, B5, B6. reflexivity. }
  assert (E : grec_to_bytes (mkGroupRecord t a (be16 n0 n1) x0 x1 x2 x3) = [t; a; n0; n1; x0; x1; x2; x3]).
  { unfold grec_to_bytes. cbn [record_type aux_data_len gr_num_of_sources m0 m1 m2 m3].
    rewrite u16_to_be_be16 by assumption. reflexivity. }
  split; [exact WF|]. split; [reflexivity|]. split; [exact E|]. split.
  - rewrite E. apply agree_of_masked; [reflexivity|].
    unfold grec_keep_mask. change (ones 8) with [255; 255; 255; 255; 255; 255; 255; 255].
    cbn [masked]. rewrite !land_255 by assumption. reflexivity.
  - pose proof (grec_dec_enc _ [] WF) as F. rewrite app_nil_r in F. exact F.
Qed.

(* RFC 3376 section 4.2 group record layout (CtlMsg/Spec.v group_record) reads the value back *)
Theorem grec_spec g : wf_grec g = true -> group_record (grec_to_bytes g) = CtlMsg.Spec.Ok (g, []).
Proof.
  intros W. pose proof (grec_dec_enc g [] W) as F. rewrite app_nil_r in F.
  unfold grec_from_slice in F. rewrite group_record_eq in F.
  destruct (group_record (grec_to_bytes g)) as [[g' r]| |]; try discriminate.
  apply Ok_inj in F. apply pair_equal_spec in F. destruct F as [-> ->]. reflexivity.
Qed.
