(* Struct family: what PacketHeaders::from_ether_type
   answers when the ether type says IPv4 / IPv6 and the data are too short for the fixed header or carry
   another version nibble (the counterpart of Equiv/Proofs.ethertype_mismatch, which is about SlicedPacket):
   the same four answers, so C06_headers_ethertype_eq_ip (matching nibble) and this cover every input. *)
From EP Require Import Base.Bytes Parse.Types Parse.Slices Parse.Cursor Parse.HdrModel Equiv.HdrShift.
From Coq Require Import ZArith Lia ZifyN ZifyBool.
Import SlicedPacketCursor.
Local Open Scope N_scope.

Theorem headers_ethertype_mismatch bs :
  (len bs < 20 ->
   PacketHeaders.from_ether_type ET_IPV4 bs =
   Err (ELen (mkLenError 20 (len bs) LsSlice LyIpv4Header 0))) /\
  (len bs < 40 ->
   PacketHeaders.from_ether_type ET_IPV6 bs =
   Err (ELen (mkLenError 40 (len bs) LsSlice LyIpv6Header 0))) /\
  (forall b rest, bs = b :: rest -> 20 <= len bs -> N.shiftr b 4 <> 4 ->
   PacketHeaders.from_ether_type ET_IPV4 bs = Err (EContent (CeIpv4Version (N.shiftr b 4)))) /\
  (forall b rest, bs = b :: rest -> 40 <= len bs -> N.shiftr b 4 <> 6 ->
   PacketHeaders.from_ether_type ET_IPV6 bs = Err (EContent (CeIpv6Version (N.shiftr b 4)))).
Proof.
  repeat split.
  - intros H. rewrite from_ether_type_v4_tail.
    unfold IpHeaders.from_ipv4_slice, Ipv4Header.from_slice, Ipv4HeaderSlice.from_slice.
    change (s_len (mk_slice bs)) with (len bs).
    destruct (len bs <? 20) eqn:E; [|apply N.ltb_ge in E; lia]. cbn [bind lerr ip_tail].
    apply add_offset_self.
  - intros H. rewrite from_ether_type_v6_tail.
    unfold IpHeaders.from_ipv6_slice, Ipv6Header.from_slice, Ipv6HeaderSlice.from_slice.
    change (s_len (mk_slice bs)) with (len bs).
    destruct (len bs <? 40) eqn:E; [|apply N.ltb_ge in E; lia]. cbn [bind lerr ip_tail].
    apply add_offset_self.
  - intros b rest -> H Hv. rewrite from_ether_type_v4_tail.
    unfold IpHeaders.from_ipv4_slice, Ipv4Header.from_slice, Ipv4HeaderSlice.from_slice.
    change (s_len (mk_slice (b :: rest))) with (len (b :: rest)).
    destruct (len (b :: rest) <? 20) eqn:E; [apply N.ltb_lt in E; lia|].
    change (rdU (mk_slice (b :: rest)) 0) with (@Ok N b). cbn [bind].
    destruct (N.shiftr b 4 =? 4) eqn:E4; [apply N.eqb_eq in E4; lia|]. reflexivity.
  - intros b rest -> H Hv. rewrite from_ether_type_v6_tail.
    unfold IpHeaders.from_ipv6_slice, Ipv6Header.from_slice, Ipv6HeaderSlice.from_slice.
    change (s_len (mk_slice (b :: rest))) with (len (b :: rest)).
    destruct (len (b :: rest) <? 40) eqn:E; [apply N.ltb_lt in E; lia|].
    change (rdU (mk_slice (b :: rest)) 0) with (@Ok N b). cbn [bind].
    destruct (N.shiftr b 4 =? 6) eqn:E6; [apply N.eqb_eq in E6; lia|]. reflexivity.
Qed.
