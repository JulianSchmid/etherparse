(* Equiv/ReadBase.v -- C06 group 3, shared machinery for the read-vs-from_slice
   proofs: the "same reason" relation, one-step lemmas for a read program that
   runs on a std::io::Cursor (plain or through a LimitedReader), list and bit
   facts. *)
From EP Require Import Base.Bytes Base.Lists Parse.Types Parse.Slices IoFault.Spec IoFault.Model
  IoFault.Proofs Equiv.ModelRead Equiv.ReadProofs.
From EP Require Export Equiv.Settle.
From Coq Require Import ZArith Lia ZifyN ZifyBool.

Local Open Scope N_scope.

(* ---- the relation "same header, or a rejection for the same reason" ---------- *)
(* read side first, slice side second.  Everything is compared exactly except
   the required_len of a LimitedReader length error about a raw IPv6 extension
   header: the reader names what its current read_exact needs (2, or the full
   header once the length byte is known), the slice decoder names the minimum
   header size 8 while fewer than 8 bytes are left.  Both exceed the length that
   is available, which is what the error is about. *)
Definition same_reason (r s : outcome) : Prop :=
  match r, s with
  | OOk n, OOk m => n = m
  | OEof, OEof => True
  | OContent k, OContent k' => k = k'
  | OLen rq l src ly off, OLen rq' l' src' ly' off' =>
      l = l' /\ src = src' /\ ly = ly' /\ off = off' /\
      (rq = rq' \/ (ly = L_IPV6EXT /\ l < 8 /\ l < rq /\ rq' = 8))
  | _, _ => False
  end.

Lemma same_reason_eq r s : r = s -> (forall b, r <> OBad b) -> same_reason r s.
Proof.
  intros <- H. destruct r; cbn; auto.
  - repeat split; auto.
  - exfalso. now apply (H site).
Qed.

(* ---- lists ------------------------------------------------------------------- *)
Lemma take_drop_take {A} k n a (l : list A) : k + n <= a ->
  take n (drop k (take a l)) = take n (drop k l).
Proof. intros H. rewrite drop_take_sub. apply take_take. lia. Qed.

(* masks and shifts of one byte *)
Lemma shr4_div v : N.shiftr v 4 = v / 16.
Proof. rewrite N.shiftr_div_pow2. reflexivity. Qed.

Lemma land15_mod v : N.land v 15 = v mod 16.
Proof. change 15 with (N.ones 4). rewrite N.land_ones. reflexivity. Qed.

Lemma land63_mod v : N.land v 63 = v mod 64.
Proof. change 63 with (N.ones 6). rewrite N.land_ones. reflexivity. Qed.

Lemma bit7 v : v < 256 -> N.testbit v 7 = Macsec.bit v 128.
Proof.
  intros H. apply Bool.eqb_prop.
  apply (sweep256 (fun v => Bool.eqb (N.testbit v 7) (Macsec.bit v 128))); [vm_compute; reflexivity|exact H].
Qed.

Lemma bit5 v : v < 256 -> N.testbit v 5 = Macsec.bit v 32.
Proof.
  intros H. apply Bool.eqb_prop.
  apply (sweep256 (fun v => Bool.eqb (N.testbit v 5) (Macsec.bit v 32))); [vm_compute; reflexivity|exact H].
Qed.

Lemma tcp_hl v : v < 256 -> N.shiftr (N.land v 240) 2 = v / 16 * 4.
Proof.
  intros H. apply N.eqb_eq.
  apply (sweep256 (fun v => N.shiftr (N.land v 240) 2 =? v / 16 * 4)); [vm_compute; reflexivity|exact H].
Qed.

(* ---- slices -------------------------------------------------------------------- *)
Lemma rdU_some (s : slice) i v : rd (snd s) i = Some v -> rdU s i = Ok v.
Proof. intros H. unfold rdU. now rewrite H. Qed.

Lemma rd16_some (s : slice) i a b :
  rd (snd s) i = Some a -> rd (snd s) (i + 1) = Some b -> rd16 s i = Ok (be16 a b).
Proof. intros Ha Hb. unfold rd16. rewrite (rdU_some _ _ _ Ha), (rdU_some _ _ _ Hb). reflexivity. Qed.

Lemma subU_ok (s : slice) k n : k + n <= s_len s ->
  subU s k n = Ok (fst s + k, take n (drop k (snd s))).
Proof. intros H. unfold subU. destruct (k + n <=? s_len s) eqn:E; [reflexivity|lia]. Qed.

Lemma s_len_pair (o : N) (bs : bytes) : s_len (o, bs) = len bs.
Proof. reflexivity. Qed.

Lemma s_len_sub (bs : bytes) o k n : k + n <= len bs -> s_len (o, take n (drop k bs)) = n.
Proof. intros H. unfold s_len. cbn [snd]. rewrite len_take, len_drop. lia. Qed.

(* ---- a read program on a Cursor, plain or behind a LimitedReader --------------- *)
Definition O (p : rprog) (st : rstate) : outcome := outcome_of_run (run_r p st).

Inductive rmode := MPlain | MLim (r : limrd).

Definition mk_st (d : bytes) (p : N) (m : rmode) : rstate :=
  mk_rstate (mk_fsource d 65536 false p) (match m with MPlain => None | MLim r => Some r end).

(* what read_exact may still take *)
Definition avail (d : bytes) (m : rmode) : N :=
  match m with MPlain => len d | MLim r => lr_max r - lr_read r end.

(* the LimitedReader's budget never exceeds what the Cursor holds: "the slice
   holds the announced packet" *)
Definition m_ok (d : bytes) (m : rmode) : Prop :=
  match m with MPlain => True | MLim r => lr_read r <= lr_max r /\ lr_max r - lr_read r <= len d end.

Definition lim_of (m : rmode) : bool := match m with MPlain => false | MLim _ => true end.

Definition m_start (m : rmode) (layer : N) : rmode :=
  match m with
  | MPlain => MPlain
  | MLim r => MLim (mk_limrd (lr_max r - lr_read r) (lr_source r) layer (lr_off r + lr_read r) 0)
  end.

Definition m_adv (m : rmode) (n : N) : rmode :=
  match m with
  | MPlain => MPlain
  | MLim r => MLim (mk_limrd (lr_max r) (lr_source r) (lr_layer r) (lr_off r) (lr_read r + n))
  end.

Definition m_fail (m : rmode) (n : N) : outcome :=
  match m with
  | MPlain => OEof
  | MLim r => OLen (lr_read r + n) (lr_max r) (lr_source r) (lr_layer r) (lr_off r)
  end.

Lemma O_start d p m layer k : m_ok d m ->
  O (with_start (lim_of m) layer k) (mk_st d p m) = O k (mk_st d p (m_start m layer)).
Proof.
  intros Hok. destruct m as [|r]; cbn [lim_of with_start m_start]; [reflexivity|].
  unfold O, mk_st. cbn [run_r rs_lim rs_src]. unfold lr_start_layer, checked_sub.
  destruct Hok as [H1 _].
  is_true (lr_read r <=? lr_max r).
  reflexivity.
Qed.

Lemma O_read d p m n k : m_ok d m ->
  O (PRead n k) (mk_st d p m) =
  if n <=? avail d m then O (k (take n d)) (mk_st (drop n d) (p + n) (m_adv m n))
  else m_fail m n.
Proof.
  intros Hok. destruct m as [|r]; cbn [avail m_adv m_fail].
  - unfold O, mk_st. rewrite run_PRead by (cbn; lia).
    cbn [src_data src_chunk src_err src_pulled]. destruct (n <=? len d); reflexivity.
  - destruct Hok as [H1 H2]. unfold O, mk_st. cbn [run_r rs_lim rs_src].
    destruct (n <=? lr_max r - lr_read r) eqn:E.
    + rewrite lr_read_exact_within by (cbn [src_chunk src_data]; lia).
      cbn [src_data src_chunk src_err src_pulled].
      is_true (n <=? len d). reflexivity.
    + rewrite lr_read_exact_len by lia. reflexivity.
Qed.

Lemma m_ok_start d m layer : m_ok d m -> m_ok d (m_start m layer).
Proof. destruct m as [|r]; cbn; [auto|]. intros [H1 H2]. lia. Qed.

Lemma m_ok_adv d m n : m_ok d m -> n <= avail d m -> m_ok (drop n d) (m_adv m n).
Proof.
  destruct m as [|r]; cbn [m_ok m_adv avail lr_max lr_read]; [auto|].
  intros [H1 H2] H. rewrite len_drop. lia.
Qed.

Lemma avail_start d m layer : m_ok d m -> avail d (m_start m layer) = avail d m.
Proof. destruct m as [|r]; cbn; [reflexivity|]. intros [H1 H2]. lia. Qed.

Lemma avail_adv d m n : n <= avail d m -> avail (drop n d) (m_adv m n) = avail d m - n.
Proof.
  destruct m as [|r]; cbn [m_adv avail lr_max lr_read]; intros H.
  - apply len_drop.
  - lia.
Qed.

Lemma avail_le d m : m_ok d m -> avail d m <= len d.
Proof. destruct m as [|r]; cbn; [lia|]. intros [H1 H2]. lia. Qed.

Lemma at_some b i v k : rd b i = Some v -> at_ b i k = k v.
Proof. intros H. unfold at_. now rewrite H. Qed.

Lemma cursor_st bs : mk_rstate (cursor_src bs) None = mk_st bs 0 MPlain.
Proof. reflexivity. Qed.

Lemma O_ret a d p m : O (PRet a) (mk_st d p m) = OOk p.
Proof. reflexivity. Qed.

Lemma O_fail c d p m : O (PFail c) (mk_st d p m) = OContent (KC c).
Proof. reflexivity. Qed.
