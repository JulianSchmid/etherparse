(* Equiv/ReadValuesLink.v -- C06 group 3, header VALUES, link layer + ARP:
   for Ethernet2Header, SingleVlanHeader, LinuxSllHeader, MacsecHeader and
   ArpPacket the field-level decode model of `T::read` and of `T::from_slice`
   (the C08 models Roundtrip/{Eth,Vlan,Sll,Macsec,Arp}.v) return the SAME
   decoded struct and the same unread rest on EVERY byte string; a slice Len
   error corresponds to the reader's UnexpectedEof (`eof_of_len`, from
   Equiv/ReadValues.v).  Plain `=` of Roundtrip.Common.res values: struct,
   rest and error kind.  The EOOB / EPanic branches of the models need no
   hypothesis: either both sides run into the same one (never, see the
   *_err lemmas: a to_header failure is never a Len error) or the branch is
   shown unreachable inside the proof.

   MacsecHeader::from_slice and ArpPacket::from_slice return the header only
   (no rest); `read` leaves the reader behind the header.  For these two the
   right-hand side pairs the header with `drop (header_len h) bs`, the model's
   own header length function (mac_header_len / arp_packet_len). *)
From EP Require Import Base.Bytes Roundtrip.CommonProofs Roundtrip.LinkNetLemmas.
From EP Require Import Roundtrip.Eth Roundtrip.Vlan Roundtrip.Sll Roundtrip.Macsec Roundtrip.Arp
                       Roundtrip.ArpProofs.
From EP Require Import Equiv.ReadValues.
From EP Require Import Roundtrip.Common.
From Coq Require Import ZArith Lia ZifyN ZifyBool.

Local Open Scope N_scope.

(* ---- Ethernet2Header ---------------------------------------------------------------- *)
Lemma eth_to_header_err s e : eth_to_header s = Err e -> e = EOOB.
Proof.
  unfold eth_to_header.
  destruct (slice_range s 0 6), (slice_range s 6 12), (slice_range s 12 14) as [[|? [|? [|? ?]]]|];
    intros H; try discriminate H; now injection H as <-.
Qed.

Theorem eth_read_eq_from_slice bs : eth_read bs = eof_of_len (eth_from_slice bs).
Proof.
  unfold eth_read, eth_from_slice, eth_slice_from_slice, read_exact, slice_from.
  destruct (len bs <? 14) eqn:E; [reflexivity|]. apply N.ltb_ge in E.
  is_true (14 <=? len bs).
  destruct (eth_to_header (take 14 bs)) as [h|e] eqn:Eh; [reflexivity|].
  rewrite (eth_to_header_err _ _ Eh). reflexivity.
Qed.

(* the EOOB branch of to_header is dead behind the length check *)
Lemma eth_to_header_ok bs : 14 <= len bs -> exists h, eth_to_header (take 14 bs) = Ok h.
Proof.
  intros E. destruct (split_n 14 bs E) as (pre & t & -> & Hpre).
  do 14 (destruct pre as [|? pre]; [discriminate Hpre|]). destruct pre; [|discriminate Hpre].
  eexists. reflexivity.
Qed.

Example eth_read_eq_from_slice_ex :
  let bs := [1;2;3;4;5;6; 7;8;9;10;11;12; 8;0; 69;0] in
  eth_read bs = Ok ({| eth_source := [7;8;9;10;11;12]; eth_destination := [1;2;3;4;5;6];
                       eth_ether_type := 2048 |}, [69;0])
  /\ eth_from_slice bs = eth_read bs.
Proof. vm_compute. split; reflexivity. Qed.

(* ---- SingleVlanHeader --------------------------------------------------------------- *)
Lemma vl_to_header_err s e : vl_to_header s = Err e -> e = EOOB.
Proof.
  unfold vl_to_header. destruct s as [|b0 [|b1 [|b2 [|b3 t]]]]; intros H; try discriminate H;
    now injection H as <-.
Qed.

Theorem vl_read_eq_from_slice bs : vl_read bs = eof_of_len (vl_from_slice bs).
Proof.
  unfold vl_read, vl_from_slice, vl_slice_from_slice, read_exact, slice_from.
  destruct (len bs <? 4) eqn:E; [reflexivity|]. apply N.ltb_ge in E.
  is_true (4 <=? len bs).
  destruct (vl_to_header (take 4 bs)) as [h|e] eqn:Eh; [reflexivity|].
  rewrite (vl_to_header_err _ _ Eh). reflexivity.
Qed.

Lemma vl_to_header_ok bs : 4 <= len bs -> exists h, vl_to_header (take 4 bs) = Ok h.
Proof.
  intros E. destruct (split_n 4 bs E) as (pre & t & -> & Hpre).
  do 4 (destruct pre as [|? pre]; [discriminate Hpre|]). destruct pre; [|discriminate Hpre].
  eexists. reflexivity.
Qed.

Example vl_read_eq_from_slice_ex :
  let bs := [177; 35; 134; 221; 96] in
  vl_read bs = Ok ({| vl_pcp := 5; vl_drop_eligible_indicator := true; vl_vlan_id := 291;
                      vl_ether_type := 34525 |}, [96])
  /\ vl_from_slice bs = vl_read bs.
Proof. vm_compute. split; reflexivity. Qed.

(* ---- LinuxSllHeader ----------------------------------------------------------------- *)
(* read decodes with from_bytes (content checks inside), from_slice checks the content in
   LinuxSllHeaderSlice::from_slice and decodes a second time in to_header
   (try_from(..).unwrap_unchecked()): same value, same content error, in the same order
   (packet type before ARP hardware id), both behind the length check. *)
Theorem sll_read_eq_from_slice bs : sll_read bs = eof_of_len (sll_from_slice bs).
Proof.
  unfold sll_read, sll_from_slice, sll_slice_from_slice, read_exact, slice_from.
  destruct (len bs <? 16) eqn:E; [reflexivity|]. apply N.ltb_ge in E.
  is_true (16 <=? len bs).
  destruct (split_n 16 bs E) as (pre & t & -> & Hpre).
  do 16 (destruct pre as [|? pre]; [discriminate Hpre|]). destruct pre; [|discriminate Hpre]. clear Hpre E.
  cbv -[be16 sll_packet_type_try_from sll_protocol_try_from].
  destruct (sll_packet_type_try_from (be16 n n0)) as [pt|] eqn:E1; [|reflexivity].
  destruct (sll_protocol_try_from (be16 n1 n2) (be16 n13 n14)) as [p|] eqn:E2; [|reflexivity].
  cbv -[be16 sll_packet_type_try_from sll_protocol_try_from]. rewrite E1, E2. reflexivity.
Qed.

Example sll_read_eq_from_slice_ex :
  let bs := [0;4; 0;1; 0;6; 1;2;3;4;5;6;0;0; 8;0; 69] in
  sll_read bs = Ok ({| sll_packet_type := 4; sll_arp_hrd_type := 1;
                       sll_sender_address_valid_length := 6;
                       sll_sender_address := [1;2;3;4;5;6;0;0];
                       sll_protocol_type := SllEtherType 2048 |}, [69])
  /\ sll_from_slice bs = sll_read bs.
Proof. vm_compute. split; reflexivity. Qed.

(* ---- MacsecHeader --------------------------------------------------------------------- *)
(* read: read_exact(6), version / short-length checks, read_exact(required_len - 6) into a
   zeroed [u8;16], to_header of &bytes[..required_len]; from_slice: the same checks in the same
   order on the slice, to_header of &slice[..required_len].  The `required_len <= 16` EPanic
   branch of read and the slice_range EPanic branch are shown dead in mac_tail. *)
Lemma mac_unmod_bits tci : (band tci 12 =? 0) = negb (nz (band tci 8)) && negb (nz (band tci 4)).
Proof.
  unfold band, nz. change 12 with (N.lor 8 4). rewrite N.land_lor_distr_r.
  destruct (N.eqb_spec (N.land tci 8) 0) as [A|A], (N.eqb_spec (N.land tci 4) 0) as [B|B]; cbn [negb andb].
  - apply N.eqb_eq. rewrite A, B. reflexivity.
  - apply N.eqb_neq. intros H. apply N.lor_eq_0_iff in H. tauto.
  - apply N.eqb_neq. intros H. apply N.lor_eq_0_iff in H. tauto.
  - apply N.eqb_neq. intros H. apply N.lor_eq_0_iff in H. tauto.
Qed.

Lemma mac_rd16_err s i j e : mac_rd16 s i j = Err e -> e = EOOB.
Proof. unfold mac_rd16. destruct (rd s i), (rd s j); intros H; try discriminate H; now injection H as <-. Qed.

Lemma mac_sl_ptype_err s tci e : mac_sl_ptype s tci = Err e -> e = EOOB.
Proof.
  unfold mac_sl_ptype. destruct (nz (band tci 8)), (nz (band tci 4)), (nz (band tci 32)); try discriminate.
  - destruct (mac_rd16 s 14 15) eqn:R; [discriminate|]. intros H. injection H as <-. eapply mac_rd16_err; eauto.
  - destruct (mac_rd16 s 6 7) eqn:R; [discriminate|]. intros H. injection H as <-. eapply mac_rd16_err; eauto.
Qed.

Lemma mac_sl_sci_err s tci e : mac_sl_sci s tci = Err e -> e = EOOB.
Proof.
  unfold mac_sl_sci. destruct (nz (band tci 32)); [|discriminate].
  destruct (rd s 6), (rd s 7), (rd s 8), (rd s 9), (rd s 10), (rd s 11), (rd s 12), (rd s 13);
    intros H; try discriminate H; now injection H as <-.
Qed.

Lemma mac_to_header_err s e : mac_to_header s = Err e -> e = EOOB.
Proof.
  unfold mac_to_header.
  destruct (rd s 0) as [tci|], (rd s 1), (rd s 2), (rd s 3), (rd s 4), (rd s 5);
    try (intros H; now injection H as <-).
  destruct (mac_sl_ptype s tci) eqn:P.
  - destruct (mac_sl_sci s tci) eqn:S; [discriminate|]. intros H. injection H as <-. eapply mac_sl_sci_err; eauto.
  - intros H. injection H as <-. eapply mac_sl_ptype_err; eauto.
Qed.

Lemma mac_to_header_len s tci h :
  rd s 0 = Some tci -> mac_to_header s = Ok h -> mac_header_len h = mac_required_len tci.
Proof.
  intros R H. unfold mac_to_header in H. rewrite R in H.
  destruct (rd s 1), (rd s 2), (rd s 3), (rd s 4), (rd s 5); try discriminate H.
  destruct (mac_sl_ptype s tci) as [p|] eqn:P; [|discriminate H].
  destruct (mac_sl_sci s tci) as [sci|] eqn:S; [|discriminate H].
  injection H as <-. unfold mac_header_len, mac_required_len. cbn [mac_sci mac_ptype].
  assert (A : mac_sci_some sci = nz (band tci 32)).
  { unfold mac_sl_sci in S. destruct (nz (band tci 32)); [|now injection S as <-].
    destruct (rd s 6), (rd s 7), (rd s 8), (rd s 9), (rd s 10), (rd s 11), (rd s 12), (rd s 13);
      try discriminate S. now injection S as <-. }
  assert (B : mac_is_unmod p = (band tci 12 =? 0)).
  { rewrite mac_unmod_bits. unfold mac_sl_ptype in P.
    destruct (nz (band tci 8)), (nz (band tci 4)); cbn [negb andb]; try (now injection P as <-).
    destruct (nz (band tci 32)).
    - destruct (mac_rd16 s 14 15); [|discriminate P]. now injection P as <-.
    - destruct (mac_rd16 s 6 7); [|discriminate P]. now injection P as <-. }
  rewrite A, B. destruct (nz (band tci 32)), (band tci 12 =? 0); reflexivity.
Qed.

Lemma mac_required_len_bounds tci : 6 <= mac_required_len tci <= 16.
Proof. unfold mac_required_len. destruct (band tci 12 =? 0), (nz (band tci 32)); lia. Qed.


Lemma mac_tail bs tci req : 6 <= len bs -> rd bs 0 = Some tci -> req = mac_required_len tci ->
  match (if 6 <? req
         then if req <=? 16 then read_exact (drop 6 bs) (req - 6) else Err EPanic
         else Ok ([], drop 6 bs)) with
  | Ok (more, r2) =>
      match slice_range (take 6 bs ++ more ++ zeros (16 - 6 - len more)) 0 req with
      | Some hs => match mac_to_header hs with Ok h => Ok (h, r2) | Err e => Err e end
      | None => Err EPanic
      end
  | Err e => Err e
  end
  = eof_of_len
      match (match (if len bs <? req then Err ELen else Ok (take req bs)) with
             | Ok hs => mac_to_header hs
             | Err e => Err e
             end) with
      | Ok h => Ok (h, drop (mac_header_len h) bs)
      | Err e => Err e
      end.
Proof.
  intros E6 R0 Hreq. pose proof (mac_required_len_bounds tci) as RB. rewrite <- Hreq in RB.
  assert (X : (if 6 <? req
               then if req <=? 16 then read_exact (drop 6 bs) (req - 6) else Err EPanic
               else Ok ([], drop 6 bs)) = read_exact (drop 6 bs) (req - 6)).
  { destruct (6 <? req) eqn:L.
    - rewrite (leb_true req 16) by lia. reflexivity.
    - apply N.ltb_ge in L. replace (req - 6) with 0 by lia. unfold read_exact.
      rewrite (ltb_false _ 0) by lia. reflexivity. }
  rewrite X. unfold read_exact. rewrite len_drop.
  destruct (len bs <? req) eqn:Er.
  - apply N.ltb_lt in Er. is_true (len bs - 6 <? req - 6).
    reflexivity.
  - apply N.ltb_ge in Er. rewrite (ltb_false (len bs - 6) (req - 6)) by lia.
    set (more := take (req - 6) (drop 6 bs)).
    assert (TB : take 6 bs ++ more = take req bs).
    { unfold more. replace req with (6 + (req - 6)) at 2 by lia. symmetry. apply take_drop_split. }
    assert (LT : len (take req bs) = req) by (rewrite len_take; lia).
    assert (SR : slice_range (take 6 bs ++ more ++ zeros (16 - 6 - len more)) 0 req = Some (take req bs)).
    { rewrite app_assoc, TB. unfold slice_range. rewrite len_app, LT.
      replace ((0 <=? req) && (req <=? req + len (zeros (16 - 6 - len more)))) with true
        by (symmetry; apply andb_true_intro; split; apply N.leb_le; lia).
      rewrite drop_0, N.sub_0_r. f_equal. apply take_app_len. symmetry. exact LT. }
    rewrite SR. rewrite drop_drop. replace (6 + (req - 6)) with req by lia.
    destruct (mac_to_header (take req bs)) as [h|e] eqn:H.
    + assert (R0' : rd (take req bs) 0 = Some tci) by (rewrite rd_take_lt by lia; exact R0).
      rewrite (mac_to_header_len _ tci h R0' H), <- Hreq. reflexivity.
    + rewrite (mac_to_header_err _ _ H). reflexivity.
Qed.

(* MacsecHeader::from_slice returns the header only: the rest of the reader is compared with
   the slice behind header_len().  No hypothesis: tci / short length are arbitrary N. *)
Theorem mac_read_eq_from_slice bs :
  mac_read bs = eof_of_len (match mac_from_slice bs with
                            | Ok h => Ok (h, drop (mac_header_len h) bs)
                            | Err e => Err e
                            end).
Proof.
  unfold mac_read, mac_from_slice, mac_slice_from_slice. unfold read_exact at 1.
  destruct (len bs <? 6) eqn:E6; [reflexivity|]. apply N.ltb_ge in E6.
  rewrite !rd_take_lt by lia.
  destruct (rd_lt_Some bs 0 ltac:(lia)) as [tci R0]. destruct (rd_lt_Some bs 1 ltac:(lia)) as [b1 R1].
  rewrite R0, R1.
  destruct (nz (band tci 128)); [reflexivity|].
  cbv zeta. set (req := mac_required_len tci) in *.
  destruct (band tci 12 =? 0) eqn:U, (band b1 63 =? 1) eqn:B; cbn [andb]; try reflexivity;
    apply (mac_tail bs tci req E6 R0 eq_refl).
Qed.

Example mac_read_eq_from_slice_ex :
  let bs := [32+3; 5; 0;0;1;2; 1;2;3;4;5;6;7;8; 8;0; 69;0] in
  mac_read bs = Ok ({| mac_ptype := MacUnmodified 2048; mac_endstation_id := false; mac_scb := false;
                       mac_an := 3; mac_short_len := 5; mac_packet_nr := 258;
                       mac_sci := Some 72623859790382856 |}, [69;0])
  /\ mac_from_slice bs = Ok {| mac_ptype := MacUnmodified 2048; mac_endstation_id := false; mac_scb := false;
                       mac_an := 3; mac_short_len := 5; mac_packet_nr := 258;
                       mac_sci := Some 72623859790382856 |}.
Proof. vm_compute. split; reflexivity. Qed.

(* ---- ArpPacket ------------------------------------------------------------------------ *)
(* ArpPacket::from_slice returns the packet only: the rest of the reader is compared with the
   slice behind packet_len().  bytes_ok: the two size octets are < 256 (for larger "bytes" the
   model of read runs into the from_raw_parts_mut EPanic branch, which a real u8 cannot reach). *)
Theorem arp_read_eq_from_slice bs : bytes_ok bs ->
  arp_read bs = eof_of_len (match arp_from_slice bs with
                            | Ok h => Ok (h, drop (arp_packet_len h) bs)
                            | Err e => Err e
                            end).
Proof.
  intros Hb. unfold arp_read, arp_from_slice, arp_slice_from_slice. unfold read_exact at 1.
  destruct (len bs <? 8) eqn:E; [reflexivity|]. apply N.ltb_ge in E.
  destruct (split_n 8 bs E) as (pre & t & -> & Hpre).
  do 8 (destruct pre as [|? pre]; [discriminate Hpre|]). destruct pre; [|discriminate Hpre]. clear Hpre E.
  rename n3 into hs, n4 into ps.
  set (F := [n; n0; n1; n2; hs; ps; n5; n6]) in *.
  change (n :: n0 :: n1 :: n2 :: hs :: ps :: n5 :: n6 :: t) with (F ++ t) in *.
  assert (LF : len F = 8) by reflexivity.
  assert (R4 : rd (F ++ t) 4 = Some hs) by reflexivity.
  assert (R5 : rd (F ++ t) 5 = Some ps) by reflexivity.
  rewrite R4, R5.
  assert (Hhs : hs < 256) by (eapply rd_ok; eauto).
  assert (Hps : ps < 256) by (eapply rd_ok; eauto).
  replace (take 8 (F ++ t)) with F by reflexivity.
  replace (drop 8 (F ++ t)) with t by reflexivity.
  unfold F at 1. cbv iota.
  replace ((255 <? hs) || (255 <? ps)) with false
    by (symmetry; apply orb_false_intro; apply N.ltb_ge; lia).
  rewrite len_app, LF.
  destruct (8 + len t <? 8 + hs * 2 + ps * 2) eqn:EL.
  - apply N.ltb_lt in EL. unfold read_exact.
    destruct (len t <? hs) eqn:A1; [reflexivity|]. apply N.ltb_ge in A1. cbv iota beta. rewrite !len_drop.
    destruct (len t - hs <? ps) eqn:A2; [reflexivity|]. apply N.ltb_ge in A2. cbv iota beta. rewrite !len_drop.
    destruct (len t - hs - ps <? hs) eqn:A3; [reflexivity|]. apply N.ltb_ge in A3. cbv iota beta. rewrite !len_drop.
    destruct (len t - hs - ps - hs <? ps) eqn:A4; [reflexivity|]. apply N.ltb_ge in A4.
    exfalso. lia.
  - apply N.ltb_ge in EL.
    destruct (split_len hs t ltac:(lia)) as (A & t1 & -> & LA). rewrite len_app in EL.
    destruct (split_len ps t1 ltac:(lia)) as (B & t2 & -> & LB). rewrite len_app in EL.
    destruct (split_len hs t2 ltac:(lia)) as (C & t3 & -> & LC). rewrite len_app in EL.
    destruct (split_len ps t3 ltac:(lia)) as (D & rest & -> & LD).
    rewrite (read_exact_app' A _ hs LA), (read_exact_app' B _ ps LB),
            (read_exact_app' C _ hs LC), (read_exact_app' D _ ps LD).
    replace (F ++ A ++ B ++ C ++ D ++ rest) with ((F ++ A ++ B ++ C ++ D) ++ rest)
      by (rewrite <- !app_assoc; reflexivity).
    assert (LP : len (F ++ A ++ B ++ C ++ D) = 8 + hs * 2 + ps * 2)
      by (rewrite !len_app, LF, LA, LB, LC, LD; lia).
    rewrite (take_app_len (F ++ A ++ B ++ C ++ D) rest) by (symmetry; exact LP).
    unfold F at 1. rewrite (arp_to_packet_windows n n0 n1 n2 hs ps n5 n6 A B C D LA LB LC LD Hhs Hps).
    unfold arp_packet_len. cbn [arp_hw_addr_size arp_proto_addr_size].
    rewrite (drop_app_len (F ++ A ++ B ++ C ++ D) rest) by (symmetry; exact LP).
    reflexivity.
Qed.

Example arp_read_eq_from_slice_ex :
  let bs := [0;1; 8;0; 2; 1; 0;1;  10;11; 20; 12;13; 21; 99] in
  arp_read bs = Ok ({| arp_hw_addr_type := 1; arp_proto_addr_type := 2048; arp_hw_addr_size := 2;
                       arp_proto_addr_size := 1; arp_operation := 1;
                       arp_sender_hw_addr_buf := [10;11]; arp_sender_protocol_addr_buf := [20];
                       arp_target_hw_addr_buf := [12;13]; arp_target_protocol_addr_buf := [21] |}, [99])
  /\ arp_from_slice bs = Ok {| arp_hw_addr_type := 1; arp_proto_addr_type := 2048; arp_hw_addr_size := 2;
                       arp_proto_addr_size := 1; arp_operation := 1;
                       arp_sender_hw_addr_buf := [10;11]; arp_sender_protocol_addr_buf := [20];
                       arp_target_hw_addr_buf := [12;13]; arp_target_protocol_addr_buf := [21] |}
  /\ bytes_ok bs.
Proof. split; [vm_compute; reflexivity|]. split; [vm_compute; reflexivity|]. apply bytes_okb_spec. vm_compute. reflexivity. Qed.
