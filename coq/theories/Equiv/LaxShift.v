(* Equiv/LaxShift.v -- C06 group 1 for the lax slicing family (LaxSlicedPacket):
   from_ethernet against from_ether_type on the bytes behind the Ethernet II
   header.  Pointer-shift equivariance of the lax slicers (Parse/LaxSlices.v) and
   of the lax cursor (Parse/LaxCursor.v); same technique as Equiv/ShiftProofs.v.
   Faults behind the first header are stop errors here: their layer_start_offset
   moves by 14 like the windows. *)
From EP Require Import Base.Bytes Base.Lists Parse.Types Parse.Slices Parse.Cursor Parse.LaxSlices
  Parse.LaxCursor Equiv.Model Equiv.ShiftProofs.
From Coq Require Import ZArith Lia ZifyN ZifyBool.
Import LaxSlicedPacketCursor.

Local Open Scope N_scope.

(* ---- shifted values of the lax model ------------------------------------------------ *)
Definition sh_lep k (e : lax_ether_payload) : lax_ether_payload :=
  mkLaxEp (lep_incomplete e) (lep_ether_type e) (lep_src e) (sh k (lep_slice e)).
Definition sh_lipp k (p : lax_ip_payload) : lax_ip_payload :=
  mkLaxIpp (lipp_incomplete p) (lipp_number p) (lipp_fragmented p) (lipp_src p) (sh k (lipp_slice p)).
Definition sh_lmp k (m : lax_macsec_payload) : lax_macsec_payload :=
  match m with
  | LMpUnmodified e => LMpUnmodified (sh_lep k e)
  | LMpModified i s => LMpModified i (sh k s)
  end.
Definition sh_lms k (m : lax_macsec_slice) : lax_macsec_slice :=
  mkLaxMacsec (sh k (lms_header m)) (sh_lmp k (lms_payload m)).
Definition sh_lv4 k (v : lax_ipv4_slice) : lax_ipv4_slice :=
  mkLaxIpv4 (sh k (lv4_header v)) (option_map (sh k) (lv4_auth v)) (sh_lipp k (lv4_payload v)).
Definition sh_lv6 k (v : lax_ipv6_slice) : lax_ipv6_slice :=
  mkLaxIpv6 (sh k (lv6_header v)) (sh_x6 k (lv6_exts v)) (sh_lipp k (lv6_payload v)).
Definition sh_lip k (i : lax_ip_slice) : lax_ip_slice :=
  match i with LIpV4 v => LIpV4 (sh_lv4 k v) | LIpV6 v => LIpV6 (sh_lv6 k v) end.
Definition sh_llext k (x : lax_link_ext_slice) : lax_link_ext_slice :=
  match x with LLeVlan s => LLeVlan (sh k s) | LLeMacsec m => LLeMacsec (sh_lms k m) end.
Definition sh_lnet k (n : lax_net_slice) : lax_net_slice :=
  match n with
  | LNtIpv4 v => LNtIpv4 (sh_lv4 k v) | LNtIpv6 v => LNtIpv6 (sh_lv6 k v) | LNtArp s => LNtArp (sh k s)
  end.
(* a stop error: the layer_start_offset of a length error moves *)
Definition sh_stop k (e : stop_error) : stop_error := (shift_err k (fst e), snd e).

(* ---- lax single-layer slicers -------------------------------------------------------- *)
Lemma lax_macsec_from_slice_sh k s :
  LaxMacsecSlice.from_slice (sh k s) = rmap (sh_lms k) (LaxMacsecSlice.from_slice s).
Proof. unfold LaxMacsecSlice.from_slice. steps. Qed.

Definition sh_sel k (t : slice * len_source * bool) : slice * len_source * bool :=
  (sh k (fst (fst t)), snd (fst t), snd t).

Lemma select_payload_sh k s hl tl :
  LaxIpv4Slice.select_payload (sh k s) hl tl = rmap (sh_sel k) (LaxIpv4Slice.select_payload s hl tl).
Proof. unfold LaxIpv4Slice.select_payload. steps. Qed.

Definition sh_fin4 k (r : lax_ipv4_slice * option slice_error) := (sh_lv4 k (fst r), snd r).

Lemma lv4_finish_sh k h hp src inc :
  LaxIpv4Slice.finish (sh k h) (sh k hp) src inc = rmap (sh_fin4 k) (LaxIpv4Slice.finish h hp src inc).
Proof. unfold LaxIpv4Slice.finish. steps. Qed.
#[export] Hint Resolve lax_macsec_from_slice_sh select_payload_sh lv4_finish_sh : sh.

Definition sh_w k (r : slice * N * bool * option stop_error) : slice * N * bool * option stop_error :=
  (sh k (fst (fst (fst r))), snd (fst (fst r)), snd (fst r), snd r).

Lemma lax_walk_sh k fuel : forall start_len rest nh fr,
  LaxIpv6Exts.walk fuel start_len (sh k rest) nh fr = rmap (sh_w k) (LaxIpv6Exts.walk fuel start_len rest nh fr).
Proof.
  induction fuel as [|f IH]; intros start_len rest nh fr; [reflexivity|].
  cbn [LaxIpv6Exts.walk]. steps.
Qed.

(* the hop-by-hop arm of from_slice_lax steps over the first header before it walks *)
Lemma lax_walk_adv_sh k fuel start_len s n l nh fr :
  LaxIpv6Exts.walk fuel start_len (fst (sh k s) + n, l) nh fr =
  rmap (sh_w k) (LaxIpv6Exts.walk fuel start_len (fst s + n, l) nh fr).
Proof. rewrite sh_adv. apply lax_walk_sh. Qed.
#[export] Hint Resolve lax_walk_sh lax_walk_adv_sh : sh.

Definition sh_x6l k (r : ipv6_exts_slice * N * slice * option stop_error) :=
  (sh_x6 k (fst (fst (fst r))), snd (fst (fst r)), sh k (snd (fst r)), snd r).

Lemma lax_x6_from_slice_sh k nh s :
  LaxIpv6Exts.from_slice_lax nh (sh k s) = rmap (sh_x6l k) (LaxIpv6Exts.from_slice_lax nh s).
Proof. unfold LaxIpv6Exts.from_slice_lax. steps. Qed.
#[export] Hint Resolve lax_x6_from_slice_sh : sh.

Definition sh_fin6 k (r : lax_ipv6_slice * option stop_error) := (sh_lv6 k (fst r), snd r).

Lemma lv6_finish_sh k h hp src inc :
  LaxIpv6Slice.finish (sh k h) (sh k hp) src inc = rmap (sh_fin6 k) (LaxIpv6Slice.finish h hp src inc).
Proof. unfold LaxIpv6Slice.finish. steps. Qed.
#[export] Hint Resolve lv6_finish_sh : sh.

Definition sh_lipr k (r : lax_ip_slice * option stop_error) := (sh_lip k (fst r), snd r).

Lemma lax_ip_from_slice_sh k s :
  LaxIpSlice.from_slice (sh k s) = rmap (sh_lipr k) (LaxIpSlice.from_slice s).
Proof. unfold LaxIpSlice.from_slice. steps. Qed.

Lemma udp_from_slice_lax_sh k s :
  UdpSlice.from_slice_lax (sh k s) = rmap (sh k) (UdpSlice.from_slice_lax s).
Proof. unfold UdpSlice.from_slice_lax, UdpSlice.header_from_slice. steps. Qed.
#[export] Hint Resolve lax_ip_from_slice_sh udp_from_slice_lax_sh : sh.

(* ---- the lax cursor -------------------------------------------------------------------- *)
Lemma ptr_diff_sh' k p s :
  LaxSlicedPacketCursor.ptr_diff (sh k p) (sh k s) = LaxSlicedPacketCursor.ptr_diff p s.
Proof. apply subN_add_cancel. Qed.

Definition lprel k (p1 p2 : lax_sliced_packet) : Prop :=
  lsp_exts p1 = map (sh_llext k) (lsp_exts p2) /\
  lsp_net p1 = option_map (sh_lnet k) (lsp_net p2) /\
  lsp_transport p1 = option_map (sh_tr k) (lsp_transport p2) /\
  lsp_stop_err p1 = option_map (sh_stop k) (lsp_stop_err p2).

(* results related up to the link layer; an Err can only be the `?` of the
   Ethernet II header (no second entry point) or of an accessor that never fails *)
Definition lrrel k (r1 r2 : res lax_sliced_packet) : Prop :=
  match r1, r2 with
  | Ok p1, Ok p2 => lprel k p1 p2
  | Err e1, Err e2 => e1 = e2
  | Bug a, Bug b => a = b
  | _, _ => False
  end.

Lemma fix_len_shift k e o1 o2 src : o1 = o2 + k ->
  fix_len e o1 src = le_add_offset (fix_len e o2 src) k.
Proof.
  intros ->. unfold fix_len, le_add_offset, le_set_src. cbn.
  destruct (is_slice_src (le_src e)); cbn; f_equal; lia.
Qed.

(* Moving the input by k moves every stored slice by k; starting the cursor j later moves the
   layer_start_offset of the stop error by j; the link layer goes through an arbitrary map.  The
   lax slicer returns no Err behind the first header, so the result is moved by `rmap`. *)
Definition mv_lpkt j k (fl : option link_slice -> option link_slice) (p : lax_sliced_packet) :=
  mkLaxSliced (fl (lsp_link p)) (map (sh_llext k) (lsp_exts p)) (option_map (sh_lnet k) (lsp_net p))
              (option_map (sh_tr k) (lsp_transport p)) (option_map (sh_stop j) (lsp_stop_err p)).
Definition mv_lcur j k fl (c : lax_cursor) : lax_cursor :=
  mkLaxCursor (lc_offset c + j) (lc_src c) (mv_lpkt j k fl (lc_result c)).

Lemma fix_len_mv j e o src : fix_len e (o + j) src = le_add_offset (fix_len e o src) j.
Proof. now apply fix_len_shift. Qed.

Lemma with_stop_mv j k fl r l o src ly :
  with_stop (mv_lpkt j k fl r) (ELen (fix_len l (o + j) src), ly) =
  mv_lpkt j k fl (with_stop r (ELen (fix_len l o src), ly)).
Proof. unfold with_stop, mv_lpkt, sh_stop. cbn. now rewrite fix_len_mv. Qed.

Lemma has_stop_mv j k fl r : has_stop (mv_lpkt j k fl r) = has_stop r.
Proof. unfold has_stop, mv_lpkt. cbn. destruct (lsp_stop_err r); reflexivity. Qed.

Lemma slice_transport_mv j k fl c p :
  slice_transport (mv_lcur j k fl c) (sh_lipp k p) = rmap (mv_lpkt j k fl) (slice_transport c p).
Proof.
  unfold slice_transport.
  cbn [sh_lipp lipp_fragmented lipp_number lipp_slice lipp_src mv_lcur lc_result lc_offset].
  rewrite has_stop_mv, icmp4_from_slice_sh, udp_from_slice_lax_sh, tcp_from_slice_sh, icmp6_from_slice_sh.
  destruct (lipp_fragmented p || has_stop (lc_result c)); [reflexivity|].
  destruct (lipp_number p =? IPN_ICMP).
  { destruct (Icmpv4Slice.from_slice (lipp_slice p)) as [v|[l|c0]|b]; cbn [rmap]; try reflexivity.
    now rewrite with_stop_mv. }
  destruct (lipp_number p =? IPN_UDP).
  { destruct (UdpSlice.from_slice_lax (lipp_slice p)) as [v|[l|c0]|b]; cbn [rmap]; try reflexivity.
    now rewrite with_stop_mv. }
  destruct (lipp_number p =? IPN_TCP).
  { destruct (TcpSlice.from_slice (lipp_slice p)) as [[hl v]|[l|c0]|b]; cbn [rmap sh_tcp fst snd];
      try reflexivity.
    now rewrite with_stop_mv. }
  destruct (lipp_number p =? IPN_ICMPV6).
  { destruct (Icmpv6Slice.from_slice (lipp_slice p)) as [v|[l|c0]|b]; cbn [rmap]; try reflexivity.
    now rewrite with_stop_mv. }
  reflexivity.
Qed.

Lemma conv_ext_stop_shift k v4 o1 o2 src e : o1 = o2 + k ->
  conv_ext_stop v4 (fun l => fix_len l o1 src) e =
  sh_stop k (conv_ext_stop v4 (fun l => fix_len l o2 src) e).
Proof.
  intros H. destruct e as [[l|c] ly]; cbn [conv_ext_stop sh_stop fst snd shift_err].
  - unfold sh_stop. cbn [fst snd shift_err]. f_equal. f_equal. now apply fix_len_shift.
  - destruct c; reflexivity.
Qed.

Lemma slice_ip_mv j k fl c s :
  slice_ip (mv_lcur j k fl c) (sh k s) = rmap (mv_lpkt j k fl) (slice_ip c s).
Proof.
  unfold slice_ip. rewrite lax_ip_from_slice_sh. cbn [mv_lcur lc_result lc_offset lc_src].
  destruct (LaxIpSlice.from_slice s) as [[ip stop]|[l|c0]|b]; cbn [rmap sh_lipr fst snd]; try reflexivity.
  - assert (Epl : LaxIpSlice.payload (sh_lip k ip) = sh_lipp k (LaxIpSlice.payload ip))
      by (destruct ip; reflexivity).
    assert (Ev4 : is_v4 (sh_lip k ip) = is_v4 ip) by (destruct ip; reflexivity).
    assert (Enet : net_of_ip (sh_lip k ip) = sh_lnet k (net_of_ip ip)) by (destruct ip; reflexivity).
    rewrite Epl, Ev4, Enet. cbn [sh_lipp lipp_slice lipp_src]. rewrite ptr_diff_sh'.
    apply bind_same. intros d.
    replace (lc_offset c + j + d) with (lc_offset c + d + j) by lia.
    rewrite <- (slice_transport_mv j k fl). f_equal. unfold mv_lcur. cbn [lc_offset lc_src lc_result]. f_equal.
    destruct stop as [e|]; cbn [option_map with_opt_stop]; [|reflexivity].
    rewrite (conv_ext_stop_shift j (is_v4 ip) (lc_offset c + j) (lc_offset c) (lc_src c) e eq_refl).
    reflexivity.
  - now rewrite with_stop_mv.
Qed.

Lemma slice_arp_mv j k fl c s :
  slice_arp (mv_lcur j k fl c) (sh k s) = rmap (mv_lpkt j k fl) (slice_arp c s).
Proof.
  unfold slice_arp. rewrite arp_from_slice_sh. cbn [mv_lcur lc_result lc_offset lc_src].
  destruct (ArpPacketSlice.from_slice s) as [a|[l|c0]|b]; cbn [rmap]; try reflexivity.
  now rewrite with_stop_mv.
Qed.

Lemma lpush_ext_mv j k fl p x :
  push_ext (mv_lpkt j k fl p) (sh_llext k x) = rmap (mv_lpkt j k fl) (push_ext p x).
Proof.
  unfold push_ext. cbn [mv_lpkt lsp_exts]. rewrite len_map.
  destruct (len (lsp_exts p) <? LINK_EXTS_CAP); [|reflexivity].
  cbn [rmap]. unfold mv_lpkt. cbn. now rewrite map_app.
Qed.

Lemma with_stop_add_mv j k fl r l o ly :
  with_stop (mv_lpkt j k fl r) (ELen (le_add_offset l (o + j)), ly) =
  mv_lpkt j k fl (with_stop r (ELen (le_add_offset l o), ly)).
Proof. unfold with_stop, mv_lpkt, sh_stop. cbn. now rewrite (add_offset_shift j (o + j) o). Qed.

Lemma lax_loop_mv j k fl fuel : forall c ep,
  slice_ether_type_loop fuel (mv_lcur j k fl c) (sh_ep k ep) =
  rmap (mv_lpkt j k fl) (slice_ether_type_loop fuel c ep).
Proof.
  induction fuel as [|f IH]; intros c ep; [reflexivity|].
  cbn [slice_ether_type_loop]. cbn [sh_ep ep_ether_type ep_slice mv_lcur lc_result lc_offset lc_src].
  change (lsp_exts (mv_lpkt j k fl (lc_result c))) with (map (sh_llext k) (lsp_exts (lc_result c))).
  rewrite len_map.
  destruct (is_vlan_type (ep_ether_type ep)).
  { destruct (LINK_EXTS_CAP <=? len (lsp_exts (lc_result c))); [reflexivity|].
    rewrite vlan_from_slice_sh.
    destruct (SingleVlanSlice.from_slice (ep_slice ep)) as [vlan|[l|c0]|b]; cbn [rmap]; try reflexivity.
    - rewrite vlan_payload_sh. eapply bind_sh; [reflexivity|]. intros vp.
      rewrite (lpush_ext_mv j k fl _ (LLeVlan vlan)). eapply bind_sh; [reflexivity|]. intros r'.
      replace (lc_offset c + j + SingleVlanSlice.header_len) with (lc_offset c + SingleVlanSlice.header_len + j) by lia.
      exact (IH (mkLaxCursor (lc_offset c + SingleVlanSlice.header_len) (lc_src c) r')
                (mkEtherPayload (ep_ether_type vp) (lc_src c) (ep_slice vp))).
    - now rewrite with_stop_add_mv. }
  destruct (ep_ether_type ep =? ET_MACSEC).
  { destruct (LINK_EXTS_CAP <=? len (lsp_exts (lc_result c))); [reflexivity|].
    rewrite lax_macsec_from_slice_sh.
    destruct (LaxMacsecSlice.from_slice (ep_slice ep)) as [m|[l|c0]|b]; cbn [rmap]; try reflexivity.
    - change (lms_header (sh_lms k m)) with (sh k (lms_header m)). rewrite macsec_hl_sh.
      apply bind_same. intros hl.
      rewrite (lpush_ext_mv j k fl _ (LLeMacsec m)). eapply bind_sh; [reflexivity|]. intros r'.
      change (lms_payload (sh_lms k m)) with (sh_lmp k (lms_payload m)).
      destruct (lms_payload m) as [e|i s]; cbn [sh_lmp sh_lep lep_src lep_ether_type lep_slice]; [|reflexivity].
      replace (lc_offset c + j + hl) with (lc_offset c + hl + j) by lia.
      exact (IH (mkLaxCursor (lc_offset c + hl)
                   (if negb (is_slice_src (lep_src e)) then lep_src e else lc_src c) r')
                (mkEtherPayload (lep_ether_type e)
                   (if negb (is_slice_src (lep_src e)) then lep_src e else lc_src c) (lep_slice e))).
    - now rewrite with_stop_add_mv. }
  destruct (ep_ether_type ep =? ET_ARP); [apply slice_arp_mv|].
  destruct (ep_ether_type ep =? ET_IPV4); [apply slice_ip_mv|].
  destruct (ep_ether_type ep =? ET_IPV6); [apply slice_ip_mv|].
  reflexivity.
Qed.

Lemma lrrel_mv k fl r : lrrel k (rmap (mv_lpkt k k fl) r) r.
Proof. destruct r as [p|e|b]; cbn; [|reflexivity|reflexivity]. repeat split. Qed.

(* ---- the theorem ------------------------------------------------------------------------- *)
(* LaxSlicedPacket::from_ethernet against from_ether_type on the bytes behind the
   Ethernet II header: link extensions, net, transport slices 14 bytes later, the
   stop error's layer_start_offset 14 later (its layer tag, len, len_source,
   required_len equal), link layer aside *)
Theorem lax_ethernet_eq_ethertype bs a b :
  rd bs 12 = Some a -> rd bs 13 = Some b ->
  lrrel 14 (LaxSlicedPacket.from_ethernet bs) (LaxSlicedPacket.from_ether_type (be16 a b) (drop 14 bs)).
Proof.
  intros Ha Hb.
  unfold LaxSlicedPacket.from_ethernet, LaxSlicedPacket.from_ether_type, parse_from_ethernet2,
    parse_from_ether_type, slice_ether_type.
  rewrite (eth2_slice_long bs b Hb). cbn [bind].
  rewrite (eth2_payload_long bs a b Ha Hb). cbn [bind].
  set (fl := fun _ : option link_slice => Some (LkEthernet2 (mk_slice bs))).
  match goal with |- lrrel _ ?l ?r => replace l with (rmap (mv_lpkt 14 14 fl) r); [apply lrrel_mv|] end.
  symmetry.
  match goal with |- _ = rmap _ (slice_ether_type_loop _ ?c ?e) => exact (lax_loop_mv 14 14 fl 5 c e) end.
Qed.

Theorem lax_ethernet_short bs :
  len bs < 14 ->
  LaxSlicedPacket.from_ethernet bs = Err (ELen (mkLenError 14 (len bs) LsSlice LyEthernet2Header 0)).
Proof.
  intros H. unfold LaxSlicedPacket.from_ethernet, parse_from_ethernet2.
  rewrite (eth2_slice_short bs H). reflexivity.
Qed.

(* ---- group 1b, lax family: from_ether_type(IPv4 | IPv6) against from_ip ----------------- *)
(* both go through the same version-dispatching LaxIpSlice::from_slice (F10: the
   ether type does not select the decoder); what differs is the packaging: from_ip
   returns the first header's error (`?`), from_ether_type stores it as stop error
   with layer IpHeader; from_ether_type records the ether payload as link layer. *)
Lemma fix_len_id l : fix_len l 0 LsSlice = l.
Proof.
  unfold fix_len, le_add_offset, le_set_src. destruct l as [r n s ly o]. cbn.
  rewrite N.add_0_r. destruct s; reflexivity.
Qed.

Lemma conv_ext_stop_id v4 e :
  conv_ext_stop v4 (fun l => fix_len l 0 LsSlice) e = conv_ext_stop v4 (fun l => l) e.
Proof. destruct e as [[l|c] ly]; cbn [conv_ext_stop]; [now rewrite fix_len_id|reflexivity]. Qed.

Definition lax_ip_as_ether_type (et : N) (bs : bytes) (r : res lax_sliced_packet) : res lax_sliced_packet :=
  let link := Some (LkEtherPayload (mkEtherPayload et LsSlice (mk_slice bs))) in
  match r with
  | Ok p => Ok (mkLaxSliced link (lsp_exts p) (lsp_net p) (lsp_transport p) (lsp_stop_err p))
  | Err e => Ok (mkLaxSliced link [] None None (Some (e, LyIpHeader)))
  | Bug b => Bug b
  end.

Lemma slice_transport_result c c' p :
  lc_offset c = lc_offset c' ->
  lsp_exts (lc_result c) = lsp_exts (lc_result c') -> lsp_net (lc_result c) = lsp_net (lc_result c') ->
  lsp_transport (lc_result c) = lsp_transport (lc_result c') ->
  lsp_stop_err (lc_result c) = lsp_stop_err (lc_result c') ->
  slice_transport c p =
  match slice_transport c' p with
  | Ok q => Ok (mkLaxSliced (lsp_link (lc_result c)) (lsp_exts q) (lsp_net q) (lsp_transport q) (lsp_stop_err q))
  | r => r
  end.
Proof.
  destruct c as [o s [l x n t e]], c' as [o' s' [l' x' n' t' e']]. cbn [lc_offset lc_result lsp_exts lsp_net
    lsp_transport lsp_stop_err lsp_link]. intros -> -> -> -> ->.
  unfold slice_transport, has_stop, with_transport, with_stop. cbn [lc_offset lc_result lsp_exts lsp_net
    lsp_transport lsp_stop_err lsp_link].
  repeat match goal with
  | |- context [if ?c then _ else _] => destruct c
  | |- context [match ?r with Ok _ => _ | Err _ => _ | Bug _ => _ end] => destruct r as [?|[?|?]|?]
  end; reflexivity.
Qed.

Lemma slice_transport_noerr c p e : slice_transport c p <> Err e.
Proof.
  unfold slice_transport.
  repeat match goal with
  | |- context [if ?c then _ else _] => destruct c
  | |- context [match ?r with Ok _ => _ | Err _ => _ | Bug _ => _ end] => destruct r as [?|[?|?]|?]
  end; discriminate.
Qed.

Theorem lax_ethertype_eq_ip et bs : et = ET_IPV4 \/ et = ET_IPV6 ->
  LaxSlicedPacket.from_ether_type et bs = lax_ip_as_ether_type et bs (LaxSlicedPacket.from_ip bs).
Proof.
  intros Het.
  unfold LaxSlicedPacket.from_ether_type, LaxSlicedPacket.from_ip, parse_from_ether_type, parse_from_ip,
    slice_ether_type.
  assert (L : slice_ether_type_loop 5
                (mkLaxCursor 0 LsSlice (with_link empty (LkEtherPayload (mkEtherPayload et LsSlice (mk_slice bs)))))
                (mkEtherPayload et LsSlice (mk_slice bs)) =
              slice_ip (mkLaxCursor 0 LsSlice (with_link empty (LkEtherPayload (mkEtherPayload et LsSlice (mk_slice bs)))))
                (mk_slice bs)).
  { destruct Het as [-> | ->]; reflexivity. }
  rewrite L. unfold slice_ip, lax_ip_as_ether_type. cbn [lc_result lc_offset lc_src].
  destruct (LaxIpSlice.from_slice (mk_slice bs)) as [[ip stop]|[l|c]|b]; cbn [bind].
  - unfold ptr_diff, subN.
    destruct (s_off (mk_slice bs) <=? s_off (lipp_slice (LaxIpSlice.payload ip))); cbn [bind];
      [|reflexivity].
    set (d := s_off (lipp_slice (LaxIpSlice.payload ip)) - s_off (mk_slice bs)).
    rewrite (slice_transport_result _
               (mkLaxCursor d LsSlice
                  (mkLaxSliced None [] (Some (net_of_ip ip)) None
                     (option_map (conv_ext_stop (is_v4 ip) (fun l => l)) stop))) (LaxIpSlice.payload ip)).
    + destruct (slice_transport _ (LaxIpSlice.payload ip)) as [q|e|?] eqn:Est; try reflexivity.
      * destruct stop; reflexivity.
      * exfalso. exact (slice_transport_noerr _ _ _ Est).
    + cbn [lc_offset]. lia.
    + destruct stop; reflexivity.
    + destruct stop; reflexivity.
    + destruct stop; reflexivity.
    + destruct stop as [e|]; cbn [option_map with_opt_stop lc_result lsp_stop_err with_stop with_net with_link empty];
        [now rewrite conv_ext_stop_id|reflexivity].
  - now rewrite fix_len_id.
  - reflexivity.
  - reflexivity.
Qed.
