(* Equiv/ReadValuesNet.v -- C06 group 3, header VALUES, network / transport layer:
   for UdpHeader, Ipv6RawExtHeader, IpAuthHeader, Ipv4Extensions, Icmpv4Header and
   Icmpv6Header the field-level decode model of `T::read` and of `T::from_slice`
   (the C08 models Roundtrip/{Udp,RawExt,Auth,Exts4,Icmp4,Icmp6}.v) return the SAME
   decoded struct and the same unread rest; a slice Len error corresponds to the
   reader's UnexpectedEof (`eof_of_len`, from Equiv/ReadValues.v).  Plain `=` of
   Roundtrip.Common.res values: struct, rest and error kind.

   Hypotheses, all necessary:
   * `bytes_ok bs` (RawExt, Auth, Exts4): the length octet is a u8.  For a "byte" >= 256 the
     model of read runs into its `&mut buffer[..n]` EPanic branch, which a real u8 cannot
     reach; under bytes_ok the EPanic / EOOB branches are shown dead inside the proofs.
   * Icmpv4: NOT (timestamp | timestamp reply with code 0, followed by more data).
     Icmpv4Slice::from_slice wants the slice to END with the 20 byte message (Len error
     otherwise), read takes the first 20 bytes: `icmp4_ts_trailing_differs` is the witness,
     `icmp4_read_eq_from_slice_ts` the exact relation inside the class.
   * Icmpv6: `len bs <= u32::MAX`.  Icmpv6Slice::from_slice rejects longer slices, read has
     no limit: `icmp6_read_long`; `icmp6_read_eq_from_slice_prefix` is the unconditional form.
   No type of this file needs a `cut_fixed`-style exclusion: every content check of these
   readers sits behind the read_exact of the bytes it looks at, in the order of from_slice. *)
From EP Require Import Base.Bytes.
From EP Require Import CtlMsg.Spec CtlMsg.Model CtlMsg.Proofs.
From EP Require Import Roundtrip.CommonProofs Roundtrip.Msg8.
From EP Require Import Roundtrip.Auth Roundtrip.RawExt Roundtrip.Udp Roundtrip.Exts4.
From EP Require Import Roundtrip.Icmp4 Roundtrip.Icmp4Proofs Roundtrip.Icmp6 Roundtrip.Icmp6Proofs.
From EP Require Import Equiv.ReadValues.
From EP Require Import Roundtrip.Common.
From Coq Require Import ZArith Lia ZifyN ZifyBool.

Local Open Scope N_scope.

(* ---- UdpHeader ------------------------------------------------------------------------ *)
Theorem udp_read_eq_from_slice bs : udp_read bs = eof_of_len (udp_from_slice bs).
Proof.
  unfold udp_read, udp_from_slice, udp_slice_from_slice, read_exact, slice_from.
  destruct (len bs <? 8) eqn:E; [reflexivity|]. apply N.ltb_ge in E.
  is_true (8 <=? len bs).
  destruct (split_n 8 bs E) as (pre & t & -> & Hpre).
  do 8 (destruct pre as [|? pre]; [discriminate Hpre|]). destruct pre; [|discriminate Hpre].
  reflexivity.
Qed.

Example udp_read_eq_from_slice_ex :
  let bs := [0;53; 4;0; 0;9; 171;205; 7] in
  udp_read bs = Ok ({| udp_source_port := 53; udp_destination_port := 1024; udp_length := 9;
                       udp_checksum := 43981 |}, [7])
  /\ udp_from_slice bs = udp_read bs.
Proof. vm_compute. split; reflexivity. Qed.

(* ---- Ipv6RawExtHeader ----------------------------------------------------------------- *)
Theorem rx_read_eq_from_slice bs : bytes_ok bs -> rx_read bs = eof_of_len (rx_from_slice bs).
Proof.
  intros Hb. unfold rx_read, rx_from_slice, rx_slice_from_slice. unfold read_exact at 1.
  destruct (len bs <? 2) eqn:E2.
  { apply N.ltb_lt in E2. is_true (len bs <? 8). reflexivity. }
  apply N.ltb_ge in E2.
  destruct (split_n 2 bs E2) as (pre & t & -> & Hpre).
  do 2 (destruct pre as [|? pre]; [discriminate Hpre|]). destruct pre; [|discriminate Hpre]. clear Hpre E2.
  rename n into b0, n0 into b1.
  set (F := [b0; b1]) in *. change (b0 :: b1 :: t) with (F ++ t) in *.
  assert (LF : len F = 2) by reflexivity.
  assert (R1 : rd (F ++ t) 1 = Some b1) by reflexivity. rewrite R1.
  assert (Hb1 : b1 < 256) by (eapply rd_ok; eauto).
  replace (take 2 (F ++ t)) with F by reflexivity.
  replace (drop 2 (F ++ t)) with t by reflexivity.
  unfold F at 1. cbv iota zeta.
  unfold RX_MAX_PAYLOAD_LEN.
  is_false (2046 <? b1 * 8 + 6).
  rewrite len_app, LF. unfold read_exact.
  destruct (len t <? b1 * 8 + 6) eqn:EL.
  - apply N.ltb_lt in EL. destruct (2 + len t <? 8); [reflexivity|].
    is_true (2 + len t <? (b1 + 1) * 8). reflexivity.
  - apply N.ltb_ge in EL.
    is_false (2 + len t <? 8).
    is_false (2 + len t <? (b1 + 1) * 8).
    destruct (split_len (b1 * 8 + 6) t EL) as (P & rest & -> & LP).
    rewrite (take_app_len P rest) by (symmetry; exact LP).
    rewrite (drop_app_len P rest) by (symmetry; exact LP).
    assert (LH : len (F ++ P) = (b1 + 1) * 8) by (rewrite len_app, LF, LP; lia).
    replace (F ++ P ++ rest) with ((F ++ P) ++ rest) by (rewrite <- app_assoc; reflexivity).
    rewrite (take_app_len (F ++ P) rest) by (symmetry; exact LH).
    unfold slice_from. rewrite LH, len_app, LH.
    is_true ((b1 + 1) * 8 <=? (b1 + 1) * 8 + len rest).
    rewrite (drop_app_len (F ++ P) rest) by (symmetry; exact LH).
    unfold rx_to_header. replace (rd (F ++ P) 0) with (Some b0) by reflexivity.
    rewrite LH. is_false ((b1 + 1) * 8 <? 2).
    replace (drop 2 (F ++ P)) with P by reflexivity.
    unfold rx_new_raw, RX_MAX_PAYLOAD_LEN. rewrite LP.
    is_false (b1 * 8 + 6 <? 6).
    is_false (2046 <? b1 * 8 + 6).
    replace ((b1 * 8 + 6 + 2) mod 8 =? 0) with true by (symmetry; apply N.eqb_eq; dmlia).
    cbn [negb]. unfold as_u8.
    replace ((b1 * 8 + 6 - 6) / 8 mod 256) with b1 by dmlia.
    reflexivity.
Qed.

Example rx_read_eq_from_slice_ex :
  let bs := [6; 1; 1;2;3;4;5;6; 7;8;9;10;11;12;13;14; 99] in
  (exists h, rx_read bs = Ok (h, [99]) /\ rx_next_header h = 6 /\ rx_header_length h = 1
             /\ take 14 (rx_payload_buffer h) = [1;2;3;4;5;6;7;8;9;10;11;12;13;14]
             /\ rx_from_slice bs = Ok (h, [99]))
  /\ bytes_ok bs.
Proof.
  split; [|apply bytes_okb_spec; vm_compute; reflexivity].
  eexists. split; [vm_compute; reflexivity|]. vm_compute. repeat split; reflexivity.
Qed.

(* ---- IpAuthHeader --------------------------------------------------------------------- *)
Theorem ah_read_eq_from_slice bs : bytes_ok bs -> ah_read bs = eof_of_len (ah_from_slice bs).
Proof.
  intros Hb. unfold ah_read, ah_from_slice, ah_slice_from_slice. unfold read_exact at 1.
  destruct (len bs <? 12) eqn:E; [reflexivity|]. apply N.ltb_ge in E.
  destruct (split_n 12 bs E) as (pre & t & -> & Hpre).
  do 12 (destruct pre as [|? pre]; [discriminate Hpre|]). destruct pre; [|discriminate Hpre]. clear Hpre E.
  rename n0 into pl.
  set (F := [n; pl; n1; n2; n3; n4; n5; n6; n7; n8; n9; n10]) in *.
  change (n :: pl :: n1 :: n2 :: n3 :: n4 :: n5 :: n6 :: n7 :: n8 :: n9 :: n10 :: t) with (F ++ t) in *.
  assert (LF : len F = 12) by reflexivity.
  assert (R1 : rd (F ++ t) 1 = Some pl) by reflexivity. rewrite R1.
  assert (Hpl : pl < 256) by (eapply rd_ok; eauto).
  replace (take 12 (F ++ t)) with F by reflexivity.
  replace (drop 12 (F ++ t)) with t by reflexivity.
  unfold F at 1. cbv iota zeta.
  destruct (pl <? 1) eqn:E1; [reflexivity|]. apply N.ltb_ge in E1.
  unfold AH_MAX_ICV_LEN.
  is_false (1016 <? (pl - 1) * 4).
  rewrite len_app, LF. unfold read_exact.
  destruct (len t <? (pl - 1) * 4) eqn:EL.
  - apply N.ltb_lt in EL.
    is_true (12 + len t <? (pl + 2) * 4). reflexivity.
  - apply N.ltb_ge in EL.
    is_false (12 + len t <? (pl + 2) * 4).
    destruct (split_len ((pl - 1) * 4) t EL) as (P & rest & -> & LP).
    rewrite (take_app_len P rest) by (symmetry; exact LP).
    rewrite (drop_app_len P rest) by (symmetry; exact LP).
    assert (LH : len (F ++ P) = (pl + 2) * 4) by (rewrite len_app, LF, LP; lia).
    replace (F ++ P ++ rest) with ((F ++ P) ++ rest) by (rewrite <- app_assoc; reflexivity).
    rewrite (take_app_len (F ++ P) rest) by (symmetry; exact LH).
    unfold slice_from at 1. rewrite LH, len_app, LH.
    is_true ((pl + 2) * 4 <=? (pl + 2) * 4 + len rest).
    rewrite (drop_app_len (F ++ P) rest) by (symmetry; exact LH).
    unfold ah_to_header, F at 1. cbn [app]. fold F.
    change (n :: pl :: n1 :: n2 :: n3 :: n4 :: n5 :: n6 :: n7 :: n8 :: n9 :: n10 :: P) with (F ++ P).
    unfold slice_from. rewrite LH.
    is_true (12 <=? (pl + 2) * 4).
    replace (drop 12 (F ++ P)) with P by reflexivity.
    unfold ah_new, AH_MAX_ICV_LEN. rewrite LP.
    is_false (1016 <? (pl - 1) * 4).
    replace ((pl - 1) * 4 mod 4 =? 0) with true by (symmetry; apply N.eqb_eq; dmlia).
    cbn [negb]. unfold as_u8.
    replace ((pl - 1) * 4 / 4 mod 256) with (pl - 1) by dmlia.
    reflexivity.
Qed.

Example ah_read_eq_from_slice_ex :
  let bs := [17; 2; 0;0; 0;0;1;0; 0;0;0;5; 9;8;7;6; 99] in
  (exists h, ah_read bs = Ok (h, [99]) /\ ah_next_header h = 17 /\ ah_spi h = 256
             /\ ah_sequence_number h = 5 /\ ah_raw_icv h = Some [9;8;7;6]
             /\ ah_from_slice bs = Ok (h, [99]))
  /\ bytes_ok bs.
Proof.
  split; [|apply bytes_okb_spec; vm_compute; reflexivity].
  eexists. split; [vm_compute; reflexivity|]. vm_compute. repeat split; reflexivity.
Qed.

(* ---- Ipv4Extensions ------------------------------------------------------------------- *)
Lemma ah_to_header_nh s h : ah_to_header s = Ok h -> rd s 0 = Some (ah_next_header h).
Proof.
  unfold ah_to_header.
  destruct s as [|b0 [|? [|? [|? [|b4 [|b5 [|b6 [|b7 [|b8 [|b9 [|b10 [|b11 t]]]]]]]]]]]]; try discriminate.
  destruct (slice_from _ 12) as [icv|]; [|discriminate].
  unfold ah_new. destruct (AH_MAX_ICV_LEN <? len icv); [discriminate|].
  destruct (negb (len icv mod 4 =? 0)); [discriminate|].
  intros H. injection H as <-. reflexivity.
Qed.

Lemma ah_to_header_nil_rd s : rd s 0 = None -> ah_to_header s = Err EOOB.
Proof. destruct s; [reflexivity|discriminate]. Qed.

(* both take the protocol number that announces the extensions as an argument *)
Theorem x4_read_eq_from_slice sn bs : bytes_ok bs -> x4_read bs sn = eof_of_len (x4_from_slice sn bs).
Proof.
  intros Hb. unfold x4_read, x4_from_slice, x4_slice_from_slice.
  destruct (X4_AUTH =? sn); [|reflexivity].
  rewrite (ah_read_eq_from_slice bs Hb). unfold ah_from_slice.
  destruct (ah_slice_from_slice bs) as [hs|e]; [|destruct e; reflexivity].
  destruct (slice_from bs (len hs)) as [rest|]; [|reflexivity].
  destruct (ah_to_header hs) as [h|e] eqn:H.
  - rewrite (ah_to_header_nh _ _ H). cbv iota beta. rewrite H. reflexivity.
  - destruct (rd hs 0) eqn:R.
    + cbv iota beta. rewrite H. destruct e; reflexivity.
    + rewrite (ah_to_header_nil_rd _ R) in H. injection H as <-. reflexivity.
Qed.

Example x4_read_eq_from_slice_ex :
  let bs := [17; 2; 0;0; 0;0;1;0; 0;0;0;5; 9;8;7;6; 99] in
  (exists h, x4_read bs 51 = Ok ({| x4_auth := Some h |}, 17, [99]) /\ ah_raw_icv h = Some [9;8;7;6]
             /\ x4_from_slice 51 bs = Ok ({| x4_auth := Some h |}, 17, [99]))
  /\ x4_read bs 6 = Ok ({| x4_auth := None |}, 6, bs) /\ bytes_ok bs.
Proof.
  split; [|split; [vm_compute; reflexivity|apply bytes_okb_spec; vm_compute; reflexivity]].
  eexists. split; [vm_compute; reflexivity|]. vm_compute. repeat split; reflexivity.
Qed.

(* ---- Icmpv4Header --------------------------------------------------------------------- *)
(* timestamp / timestamp reply (type 13 | 14, code 0): the 20 byte messages *)
Definition icmp4_is_ts (bs : bytes) : bool :=
  match bs with
  | t :: c :: _ => ((t =? 13) || (t =? 14)) && (c =? 0)
  | _ => false
  end.
(* ... followed by more data: Icmpv4Slice::from_slice wants the slice to END with the message *)
Definition icmp4_ts_trailing (bs : bytes) : bool := icmp4_is_ts bs && (20 <? len bs).

Lemma icmp4_is_ts_fixed t c r :
  icmp4_is_ts (t :: c :: r) = match lookup t c icmp4_fixed_table with Some _ => true | None => false end.
Proof.
  cbn [icmp4_is_ts]. rewrite <- icmp4_read_test. rewrite (N.eqb_sym c 0).
  destruct (t =? 13), (t =? 14); reflexivity.
Qed.

Theorem icmp4_read_eq_from_slice bs : icmp4_ts_trailing bs = false ->
  icmp4_read bs = eof_of_len (icmp4_from_slice bs).
Proof.
  intros NT.
  destruct (len bs <? 8) eqn:E8.
  { unfold icmp4_read, icmp4_from_slice, Icmpv4Slice.from_slice, Icmpv4Slice.MIN_LEN, read_exact.
    rewrite E8. reflexivity. }
  destruct (len_ge_cons8 bs E8) as (t & c & k0 & k1 & b4 & b5 & b6 & b7 & rest & ->).
  unfold icmp4_ts_trailing in NT. rewrite icmp4_is_ts_fixed in NT.
  destruct (lookup t c icmp4_fixed_table) as [[[n lay] mk]|] eqn:LF.
  - destruct (fixed_table_cases _ _ _ LF) as [T ->].
    cbn [andb] in NT. apply N.ltb_ge in NT. rewrite len8 in NT.
    pose proof (icmp4_cases t 0 k0 k1 b4 b5 b6 b7 rest) as C. cbv zeta in C. rewrite LF in C.
    destruct C as (_ & _ & Hf & _).
    destruct (len rest <? 12) eqn:E12.
    + apply N.ltb_lt in E12.
      unfold icmp4_from_slice. rewrite Hf, len8.
      is_false (8 + len rest <? 8).
      is_false (8 + len rest =? 20).
      unfold icmp4_read.
      change (t :: 0 :: k0 :: k1 :: b4 :: b5 :: b6 :: b7 :: rest) with ([t; 0; k0; k1; b4; b5; b6; b7] ++ rest).
      rewrite read_exact_app by reflexivity.
      change (rd [t; 0; k0; k1; b4; b5; b6; b7] 0) with (Some t).
      change (rd [t; 0; k0; k1; b4; b5; b6; b7] 1) with (Some 0). cbv iota beta.
      rewrite icmp4_read_test, LF. unfold read_exact.
      is_true (len rest <? 12). reflexivity.
    + apply N.ltb_ge in E12. assert (L12 : len rest = 12) by lia.
      destruct (len_ge_cons12 rest L12) as (o0 & o1 & o2 & o3 & r0 & r1 & r2 & r3 & t0 & t1 & t2 & t3 & ->).
      pose proof (icmp4_read_20 t k0 k1 b4 b5 b6 b7 o0 o1 o2 o3 r0 r1 r2 r3 t0 t1 t2 t3 [] T) as R.
      rewrite app_nil_r in R. rewrite R.
      rewrite (icmp4_from_slice_20 t k0 k1 b4 b5 b6 b7 o0 o1 o2 o3 r0 r1 r2 r3 t0 t1 t2 t3 T).
      reflexivity.
  - rewrite (icmp4_read_8 _ _ _ _ _ _ _ _ _ LF), (icmp4_from_slice_8 _ _ _ _ _ _ _ _ _ LF). reflexivity.
Qed.

(* inside the excluded class: read = from_slice of the slice that ENDS with the message *)
Theorem icmp4_read_eq_from_slice_ts bs : icmp4_is_ts bs = true -> 20 <= len bs ->
  icmp4_read bs = match icmp4_from_slice (take 20 bs) with
                  | Ok (h, _) => Ok (h, drop 20 bs)
                  | Err e => Err e
                  end.
Proof.
  intros TS E.
  destruct (split_n 20 bs E) as (pre & t' & -> & Hpre).
  do 20 (destruct pre as [|? pre]; [discriminate Hpre|]). destruct pre; [|discriminate Hpre]. clear Hpre E.
  cbn [app icmp4_is_ts] in TS. apply andb_true_iff in TS. destruct TS as [T C0].
  apply N.eqb_eq in C0. subst n0.
  assert (T' : n = 13 \/ n = 14).
  { apply orb_true_iff in T. destruct T as [T|T]; apply N.eqb_eq in T; auto. }
  rewrite (icmp4_read_20 n n1 n2 n3 n4 n5 n6 n7 n8 n9 n10 n11 n12 n13 n14 n15 n16 n17 n18 t' T').
  replace (take 20 ([n; 0; n1; n2; n3; n4; n5; n6; n7; n8; n9; n10; n11; n12; n13; n14; n15; n16; n17; n18] ++ t'))
    with [n; 0; n1; n2; n3; n4; n5; n6; n7; n8; n9; n10; n11; n12; n13; n14; n15; n16; n17; n18] by reflexivity.
  rewrite (icmp4_from_slice_20 n n1 n2 n3 n4 n5 n6 n7 n8 n9 n10 n11 n12 n13 n14 n15 n16 n17 n18 T').
  reflexivity.
Qed.

(* the exclusion is needed: a timestamp message followed by one more byte *)
Example icmp4_ts_trailing_differs :
  let bs := [13;0; 1;2; 0;7; 0;9; 0;0;0;1; 0;0;0;2; 0;0;0;3; 99] in
  icmp4_ts_trailing bs = true
  /\ icmp4_from_slice bs = Err ELen
  /\ icmp4_read bs = Ok ({| icmp4_type := V4TimestampRequest (mkTimestamp 7 9 1 2 3);
                            icmp4_checksum := 258 |}, [99]).
Proof. vm_compute. repeat split; reflexivity. Qed.

Example icmp4_read_eq_from_slice_ex :
  let bs := [8;0; 1;2; 0;7; 0;9; 99] in
  icmp4_ts_trailing bs = false
  /\ icmp4_read bs = Ok ({| icmp4_type := V4EchoRequest 7 9; icmp4_checksum := 258 |}, [99])
  /\ icmp4_from_slice bs = icmp4_read bs.
Proof. vm_compute. repeat split; reflexivity. Qed.

Example icmp4_read_eq_from_slice_ex_ts :
  let bs := [14;0; 1;2; 0;7; 0;9; 0;0;0;1; 0;0;0;2; 0;0;0;3] in
  icmp4_ts_trailing bs = false
  /\ icmp4_read bs = Ok ({| icmp4_type := V4TimestampReply (mkTimestamp 7 9 1 2 3);
                            icmp4_checksum := 258 |}, [])
  /\ icmp4_from_slice bs = icmp4_read bs.
Proof. vm_compute. repeat split; reflexivity. Qed.

(* ---- Icmpv6Header --------------------------------------------------------------------- *)
(* Icmpv6Slice::from_slice rejects slices longer than u32::MAX (Len error), read has no such
   limit (lengths are unbounded N in the model): hypothesis on the length *)
Theorem icmp6_read_eq_from_slice bs : len bs <= 4294967295 ->
  icmp6_read bs = eof_of_len (icmp6_from_slice bs).
Proof.
  intros LM.
  destruct (len bs <? 8) eqn:E8.
  { unfold icmp6_read, icmp6_from_slice, Icmpv6Slice.from_slice, Icmpv6Slice.MIN_LEN, read_exact.
    rewrite E8. reflexivity. }
  destruct (len_ge_cons8 bs E8) as (t & c & k0 & k1 & b4 & b5 & b6 & b7 & rest & ->).
  rewrite len8 in LM.
  rewrite icmp6_read_8, (icmp6_from_slice_8 _ _ _ _ _ _ _ _ _ LM). reflexivity.
Qed.

(* without the bound: read = from_slice of the first 8 bytes, every byte string *)
Theorem icmp6_read_eq_from_slice_prefix bs :
  icmp6_read bs = eof_of_len (match icmp6_from_slice (take 8 bs) with
                              | Ok (h, _) => Ok (h, drop 8 bs)
                              | Err e => Err e
                              end).
Proof.
  destruct (len bs <? 8) eqn:E8.
  { unfold icmp6_read, icmp6_from_slice, Icmpv6Slice.from_slice, Icmpv6Slice.MIN_LEN, read_exact.
    rewrite E8, len_take. apply N.ltb_lt in E8.
    is_true (N.min 8 (len bs) <? 8). reflexivity. }
  destruct (len_ge_cons8 bs E8) as (t & c & k0 & k1 & b4 & b5 & b6 & b7 & rest & ->).
  replace (take 8 (t :: c :: k0 :: k1 :: b4 :: b5 :: b6 :: b7 :: rest)) with [t; c; k0; k1; b4; b5; b6; b7]
    by reflexivity.
  rewrite icmp6_read_8, (icmp6_from_slice_8 t c k0 k1 b4 b5 b6 b7 []) by (change (len (@nil N)) with 0; lia).
  reflexivity.
Qed.

(* beyond the bound the two differ (no concrete witness: > 4 GiB of data) *)
Lemma icmp6_read_long bs : 4294967295 < len bs ->
  icmp6_from_slice bs = Err ELen /\ exists h, icmp6_read bs = Ok (h, drop 8 bs).
Proof.
  intros H. split; [apply icmp6_from_slice_too_long; exact H|].
  assert (E8 : (len bs <? 8) = false) by (apply N.ltb_ge; lia).
  destruct (len_ge_cons8 bs E8) as (t & c & k0 & k1 & b4 & b5 & b6 & b7 & rest & ->).
  rewrite icmp6_read_8. eexists. reflexivity.
Qed.

Example icmp6_read_eq_from_slice_ex :
  let bs := [134;0; 1;2; 64;128; 0;30; 99] in
  len bs <= 4294967295
  /\ icmp6_read bs = Ok ({| icmp6_type := V6RouterAdvertisement 64 true false 30;
                            icmp6_checksum := 258 |}, [99])
  /\ icmp6_from_slice bs = icmp6_read bs.
Proof. vm_compute. split; [discriminate|]. split; reflexivity. Qed.
