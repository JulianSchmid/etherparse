(* The offending VALUE of content rejections, read versus from_slice, for Ipv6Header (version
   number) and IpHeaders (version number, IHL).  On the value models Roundtrip/Ipv6.v, Roundtrip/Ipv4.v,
   Roundtrip/IpHeaders.v (C08), whose readers are linked to the read programs of the outcome-level
   theorems by Equiv/ReadLink.v, Equiv/ReadLinkIp.v.  Hypothesis: outside the class `cut_fixed`
   (Equiv/ReadSimple.v), inside which the two sides really differ (C06_read_cut_fixed_inside). *)
From EP Require Import Base.Bytes Equiv.ModelRead Equiv.ReadBase Equiv.ReadSimple.
From EP Require Import Roundtrip.Common Roundtrip.CommonProofs Roundtrip.Ipv4 Roundtrip.Ipv6 Roundtrip.IpHeaders
  Equiv.ReadValues.
From EP Require Equiv.ReadLink.
From Coq Require Import ZArith Lia ZifyN ZifyBool.
Local Open Scope N_scope.

Lemma shl8_band15 b : shl8 (band b 15) 4 = shl8 b 4.
Proof.
  unfold shl8, band. rewrite land15_mod, !N.shiftl_mul_pow2. change (2 ^ 4) with 16. dmlia.
Qed.

(* ---- Ipv6Header: struct, unread rest and the version number of the rejection ---- *)
Theorem ip6_read_eq_from_slice_cut bs : cut_fixed HIpv6 bs = false ->
  ip6_read bs = eof_of_len (ip6_from_slice bs).
Proof.
  intros Hc. unfold ip6_read, ip6_from_slice, ip6_slice_from_slice. unfold read_exact at 1.
  destruct bs as [|b0 r]; [reflexivity|].
  cbn [cut_fixed] in Hc. set (bs := b0 :: r) in *.
  assert (L1 : len bs = 1 + len r) by (unfold bs; apply len_cons).
  is_false (len bs <? 1).
  change (take 1 bs) with [b0]. change (drop 1 bs) with r. cbv iota beta zeta.
  change (rd bs 0) with (Some b0). cbv iota.
  change (shr b0 4) with (N.shiftr b0 4).
  destruct (len bs <? 40) eqn:E40.
  - cbn [andb] in Hc. apply Bool.negb_false_iff in Hc. rewrite Hc. cbn [negb].
    apply N.ltb_lt in E40.
    unfold ip6_read_without_version, read_exact.
    is_true (len r <? 39). reflexivity.
  - apply N.ltb_ge in E40.
    destruct (negb (N.shiftr b0 4 =? 6)); [reflexivity|].
    assert (E39 : N.of_nat 39 <= len r) by (change (N.of_nat 39) with 39; lia).
    unfold slice_from. is_true (40 <=? len bs).
    unfold bs in *. clear bs.
    Equiv.ReadLink.split_pre r 39%nat E39.
    unfold ip6_read_without_version, read_exact.
    match goal with |- context [len ?l <? 39] =>
      replace (len l <? 39) with false by (symmetry; apply N.ltb_ge; rewrite len_app; unfold len at 1; cbn [length]; lia) end.
    rewrite Equiv.ReadLink.take_pre, Equiv.ReadLink.drop_pre by reflexivity. cbv iota beta.
    rewrite shl8_band15. reflexivity.
Qed.

(* Ipv4Header outside cut_fixed; C06_read_value_ipv4 is the case `20 <= len` *)
Theorem ip4_read_eq_from_slice_cut bs : bytes_ok bs -> cut_fixed HIpv4 bs = false ->
  ip4_read bs = eof_of_len (ip4_from_slice bs).
Proof.
  intros Hb Hc. destruct (N.lt_ge_cases (len bs) 20) as [L|L]; [|apply ip4_read_eq_from_slice; assumption].
  unfold ip4_read, ip4_from_slice, ip4_slice_from_slice. unfold read_exact at 1.
  destruct bs as [|b0 r]; [reflexivity|].
  cbn [cut_fixed] in Hc. set (bs := b0 :: r) in *.
  assert (L1 : len bs = 1 + len r) by (unfold bs; apply len_cons).
  is_false (len bs <? 1).
  change (take 1 bs) with [b0]. change (drop 1 bs) with r. cbv iota beta zeta.
  replace (len bs <? 20) with true in * by (symmetry; apply N.ltb_lt; lia).
  cbn [andb] in Hc. apply Bool.negb_false_iff in Hc.
  change (shr b0 4) with (N.shiftr b0 4). rewrite Hc. cbn [negb].
  unfold read_exact. is_true (len r <? 19). reflexivity.
Qed.

(* ---- IpHeaders: the two rejections that carry a value (err::ip::HeaderError::
   UnsupportedIpVersion{version_number}, Ipv4HeaderLengthSmallerThanHeader{ihl}) are decided by the
   first byte, on both sides, with the same value.  The other content rejections of IpHeaders
   (hop-by-hop header not at the start, zero AH payload length) carry no value; their kind is
   compared by C06_read_rejection_iff through the link C06_read_link. ---- *)
Theorem iph_value_rejections b0 r :
  (N.shiftr b0 4 <> 4 -> N.shiftr b0 4 <> 6 ->
   iph_read (b0 :: r) = Err (C_UNSUPPORTED_VERSION (N.shiftr b0 4)) /\
   iph_from_slice (b0 :: r) = Err (C_UNSUPPORTED_VERSION (N.shiftr b0 4))) /\
  (N.shiftr b0 4 = 4 -> N.land b0 15 < 5 ->
   iph_read (b0 :: r) = Err (EContent (N.land b0 15)) /\
   iph_from_slice (b0 :: r) = if len (b0 :: r) <? 20 then Err ELen else Err (EContent (N.land b0 15))).
Proof.
  set (bs := b0 :: r).
  assert (L1 : len bs = 1 + len r) by (unfold bs; apply len_cons).
  assert (R : forall X : res (IpHeaders * N * bytes) -> Prop,
              X (let version := N.shiftr b0 4 in
                 if version =? 4 then
                   let ihl := N.land b0 15 in
                   if ihl <? 5 then Err (EContent ihl) else iph_read bs
                 else if version =? 6 then iph_read bs
                 else Err (C_UNSUPPORTED_VERSION version)) -> X (iph_read bs)).
  { intros X. cbv zeta.
    destruct (N.shiftr b0 4 =? 4) eqn:V4; [destruct (N.land b0 15 <? 5) eqn:I5|destruct (N.shiftr b0 4 =? 6) eqn:V6];
      try (intros H; exact H);
      unfold iph_read, read_exact at 1;
      is_false (len bs <? 1);
      change (take 1 bs) with [b0]; change (drop 1 bs) with r; cbv iota beta zeta;
      change (shr b0 4) with (N.shiftr b0 4); change (band b0 15) with (N.land b0 15);
      rewrite V4, ?I5, ?V6; intros H; exact H. }
  unfold iph_from_slice. is_false (len bs =? 0).
  change (rd bs 0) with (Some b0). cbv iota zeta.
  change (shr b0 4) with (N.shiftr b0 4). change (band b0 15) with (N.land b0 15).
  split.
  - intros N4 N6. apply N.eqb_neq in N4, N6. split; [|rewrite N4, N6; reflexivity].
    apply R. cbv zeta. rewrite N4, N6. reflexivity.
  - intros V4 I5. apply N.eqb_eq in V4. apply N.ltb_lt in I5. split; [|rewrite V4, I5; reflexivity].
    apply R. cbv zeta. rewrite V4, I5. reflexivity.
Qed.

(* outside the class cut_fixed the two sides agree on both, with the value *)
Corollary iph_value_rejections_eq bs : cut_fixed HIpHeaders bs = false ->
  forall b0 r, bs = b0 :: r ->
  (N.shiftr b0 4 <> 6 -> (N.shiftr b0 4 = 4 -> N.land b0 15 < 5) ->
   exists c, iph_read bs = Err (EContent c) /\ iph_from_slice bs = Err (EContent c) /\
             c = if N.shiftr b0 4 =? 4 then N.land b0 15 else 1000 + N.shiftr b0 4).
Proof.
  intros Hc b0 r -> N6 I. cbn [cut_fixed] in Hc.
  destruct (iph_value_rejections b0 r) as [A B].
  destruct (N.shiftr b0 4 =? 4) eqn:V4.
  - apply N.eqb_eq in V4. specialize (I V4). destruct (B V4 I) as [B1 B2].
    apply N.ltb_lt in I. rewrite I in Hc. rewrite Bool.andb_true_r, Bool.andb_false_iff in Hc.
    destruct Hc as [Hc|Hc]; [|discriminate]. rewrite Hc in B2.
    eexists. split; [exact B1|]. split; [exact B2|reflexivity].
  - apply N.eqb_neq in V4. destruct (A V4 N6) as [A1 A2].
    eexists. split; [exact A1|]. split; [exact A2|reflexivity].
Qed.

(* ---- composition with the link: the read PROGRAM of the outcome-level theorems against the
   VALUE-level from_slice, for the two IP headers (outside cut_fixed) ---- *)
Corollary read_program_eq_value_slice_ipv6 bs : cut_fixed HIpv6 bs = false ->
  read_outcome HIpv6 bs =
  Equiv.ReadLink.rt_outcome Equiv.ReadLink.ipv6_kind bs snd (eof_of_len (ip6_from_slice bs)).
Proof. intros Hc. rewrite Equiv.ReadLink.link_ipv6, (ip6_read_eq_from_slice_cut bs Hc). reflexivity. Qed.

Corollary read_program_eq_value_slice_ipv4 bs : bytes_ok bs -> cut_fixed HIpv4 bs = false ->
  read_outcome HIpv4 bs =
  Equiv.ReadLink.rt_outcome (Equiv.ReadLink.ipv4_kind bs) bs snd (eof_of_len (ip4_from_slice bs)).
Proof. intros Hb Hc. rewrite Equiv.ReadLink.link_ipv4, (ip4_read_eq_from_slice_cut bs Hb Hc). reflexivity. Qed.

(* ---- the remaining content rejections of IpHeaders carry no value ---- *)
Lemma of_q_content {A} (x : IoFault.Model.qres A * IoFault.Model.rstate) c :
  of_q x = Err (EContent c) -> c = 0 \/ c = 1.
Proof.
  destruct x as [[a|k|e|cc| | |] st]; cbn [of_q]; try discriminate.
  destruct cc; intros H; try discriminate; injection H as <-; auto.
Qed.

Lemma of_x6_content {A} (x : ExtChain.Model.res ExtChain.Model.hdr_slice_error A) c :
  of_x6 x = Err (EContent c) -> c = 0 \/ c = 1.
Proof.
  destruct x as [a|[l| |]| |]; cbn [of_x6]; intros H; try discriminate; injection H as <-; auto.
Qed.

Lemma ip4_to_header_no_content s c : ip4_to_header s <> Err (EContent c).
Proof.
  unfold ip4_to_header.
  do 20 (destruct s as [|? s]; [discriminate|]). destruct (40 <? len s); discriminate.
Qed.

Lemma ip6_to_header_no_content s c : ip6_to_header s <> Err (EContent c).
Proof.
  unfold ip6_to_header.
  do 8 (destruct s as [|? s]; [discriminate|]).
  destruct (slice_range _ 8 24); [|discriminate]. destruct (slice_range _ 24 40); discriminate.
Qed.

Lemma ah_to_header_no_content s c : Roundtrip.Auth.ah_to_header s <> Err (EContent c).
Proof.
  unfold Roundtrip.Auth.ah_to_header.
  do 12 (destruct s as [|? s]; [discriminate|]).
  destruct (slice_from _ 12); [|discriminate]. destruct (Roundtrip.Auth.ah_new _ _ _ _); discriminate.
Qed.

Lemma x4_from_slice_content start s c : Roundtrip.Exts4.x4_from_slice start s = Err (EContent c) -> c = 0.
Proof.
  unfold Roundtrip.Exts4.x4_from_slice.
  destruct (Roundtrip.Exts4.x4_slice_from_slice start s) as [[[o n] rest]|e] eqn:E.
  - destruct o as [hs|]; [|discriminate].
    destruct (Roundtrip.Auth.ah_to_header hs) eqn:A; [discriminate|].
    intros H. injection H as ->. destruct (ah_to_header_no_content _ _ A).
  - intros H. injection H as ->. revert E.
    unfold Roundtrip.Exts4.x4_slice_from_slice. destruct (_ =? start); [|discriminate].
    unfold Roundtrip.Auth.ah_slice_from_slice.
    destruct (len s <? 12); [discriminate|].
    destruct (rd s 1) as [pl|]; [|discriminate].
    destruct (pl <? 1); [intros H; injection H as <-; reflexivity|]. cbv zeta.
    destruct (len s <? (pl + 2) * 4); [discriminate|].
    destruct (slice_from s _); [|discriminate]. destruct (rd _ 0); discriminate.
Qed.

Theorem iph_other_rejections_no_value b0 r c :
  (N.shiftr b0 4 = 4 /\ 5 <= N.land b0 15) \/ N.shiftr b0 4 = 6 ->
  iph_read (b0 :: r) = Err (EContent c) \/ iph_from_slice (b0 :: r) = Err (EContent c) ->
  c = 0 \/ c = 1.
Proof.
  set (bs := b0 :: r).
  assert (L1 : len bs = 1 + len r) by (unfold bs; apply len_cons).
  intros Hcl [H|H].
  - (* read *)
    revert H. unfold iph_read. unfold read_exact at 1.
    is_false (len bs <? 1).
    change (take 1 bs) with [b0]. change (drop 1 bs) with r. cbv iota beta zeta.
    change (shr b0 4) with (N.shiftr b0 4). change (band b0 15) with (N.land b0 15).
    destruct Hcl as [[V4 I5]|V6].
    + rewrite V4. change (4 =? 4) with true. cbv iota.
      is_false (N.land b0 15 <? 5).
      destruct (60 <? _); [discriminate|].
      unfold read_exact. destruct (len r <? _); [discriminate|].
      destruct (ip4_to_header _) as [hd|e] eqn:T.
      2:{ intros H. injection H as ->. destruct (ip4_to_header_no_content _ _ T). }
      destruct (_ <? _); [discriminate|].
      destruct (of_q _) as [[[ext next] r3]|e] eqn:Q; [discriminate|].
      intros H. injection H as ->. exact (of_q_content _ _ Q).
    + rewrite V6. change (6 =? 4) with false. change (6 =? 6) with true. cbv iota.
      unfold ip6_read_without_version, read_exact.
      destruct (len r <? 39); [discriminate|].
      destruct (take 39 r) as [|c0 [|c1 [|c2 [|c3 [|c4 [|c5 [|c6 tl]]]]]]]; try discriminate.
      destruct (slice_range _ 7 23); [|discriminate]. destruct (slice_range _ 23 39); [|discriminate].
      destruct (of_q _) as [[[ext next] r3]|e] eqn:Q; [discriminate|].
      intros H. injection H as ->. exact (of_q_content _ _ Q).
  - (* from_slice *)
    revert H. unfold iph_from_slice.
    is_false (len bs =? 0).
    change (rd bs 0) with (Some b0). cbv iota zeta.
    change (shr b0 4) with (N.shiftr b0 4). change (band b0 15) with (N.land b0 15).
    destruct Hcl as [[V4 I5]|V6].
    + rewrite V4. change (4 =? 4) with true. cbv iota.
      destruct (len bs <? 20); [discriminate|].
      is_false (N.land b0 15 <? 5).
      destruct (len bs <? _); [discriminate|].
      destruct (ip4_to_header _) as [hd|e] eqn:T.
      2:{ intros H. injection H as ->. destruct (ip4_to_header_no_content _ _ T). }
      destruct (_ <? _); [discriminate|]. destruct (_ <? _); [discriminate|].
      destruct (slice_range _ _ _); [|discriminate].
      unfold v4_tail. destruct (Roundtrip.Exts4.x4_from_slice _ _) as [[[e n] rest']|e] eqn:X; [discriminate|].
      intros H. injection H as ->. left. exact (x4_from_slice_content _ _ _ X).
    + rewrite V6. change (6 =? 4) with false. change (6 =? 6) with true. cbv iota.
      destruct (len bs <? 40); [discriminate|].
      destruct (ip6_to_header _) as [hd|e] eqn:T.
      2:{ intros H. injection H as ->. destruct (ip6_to_header_no_content _ _ T). }
      destruct ((0 =? _) && _).
      * destruct (slice_range _ _ _); [|discriminate]. unfold v6_tail.
        destruct (of_x6 _) as [[[e n] rest']|e] eqn:X; [discriminate|].
        intros H. injection H as ->. exact (of_x6_content _ _ X).
      * destruct (len bs <? _); [discriminate|].
        destruct (slice_range _ _ _); [|discriminate]. unfold v6_tail.
        destruct (of_x6 _) as [[[e n] rest']|e] eqn:X; [discriminate|].
        intros H. injection H as ->. exact (of_x6_content _ _ X).
Qed.
