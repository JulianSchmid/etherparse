(* IpHeaders::read, the read program of
   IoFault/Model.v (`ip_headers_read`) against the value reader of Roundtrip/IpHeaders.v (`iph_read`).
   See Equiv/ReadLink.v for the statement format.  The value reader keeps no LenError record
   (`Err ELen`), so the LimitedReader length errors are compared after `erase_len`.  No hypothesis
   on the announced length: the LimitedReader may have a larger budget than the data. *)
From EP Require Import Base.Bytes IoFault.Spec IoFault.Model Equiv.ModelRead Equiv.ReadBase
  Equiv.ReadSimple Equiv.ReadTotal.
From EP Require Roundtrip.Common Roundtrip.Ipv4 Roundtrip.Ipv6 Roundtrip.Auth Roundtrip.Exts4
  Roundtrip.IpHeaders Roundtrip.DecodersTotal ExtChain.ReadModel ExtChain.ReadErase Equiv.ReadValues.
From EP Require Import Equiv.ReadLink.
From Coq Require Import ZArith Lia ZifyN ZifyBool.

Local Open Scope N_scope.
Module RC := EP.Roundtrip.Common.
Module RI := EP.Roundtrip.IpHeaders.
Module XR := EP.ExtChain.ReadModel.
Module XE := EP.ExtChain.ReadErase.
Module DT := EP.Roundtrip.DecodersTotal.

(* ---- IpAuthHeader::read_limited / Ipv4Extensions::read_limited of Roundtrip/IpHeaders.v are the
   read programs (the same erasure C12 has for its own readers: ExtChain/ReadErase.v) ---- *)
Lemma ah_lim_erase k st : DT.st_ok st -> rs_lim st <> None ->
  run_r (ip_auth_read true k) st =
  XR.qbind (RI.ah_read_limited st) (fun h st' => run_r (k (Roundtrip.Auth.ah_next_header h)) st').
Proof.
  intros Hs HL. unfold ip_auth_read, RI.ah_read_limited. rewrite XE.run_start_cps.
  destruct (DT.start_layer_cases true L_AUTH st Hs (fun _ => HL)) as (st1 & -> & Hs1 & _). cbn [XR.qbind].
  rewrite XE.run_PRead_cps.
  pose proof (DT.rd_exact_cases st1 12 Hs1) as C.
  destruct (XR.rd_exact st1 12) as [[start|kk|e|c| | |] st2]; try contradiction; try reflexivity. cbn [XR.qbind].
  destruct C as (L & Hb & Hs2 & _).
  destruct start as [|b0 [|b1 [|b2 [|b3 [|b4 [|b5 [|b6 [|b7 [|b8 [|b9 [|b10 [|b11 [|x t]]]]]]]]]]]]];
    try (exfalso; unfold len in L; cbn [length] in L; lia).
  unfold at_. rd_red.
  destruct (b1 <? 1) eqn:Z; [reflexivity|]. ltb_tac.
  assert (H1 : b1 < 256).
  { apply bytes_ok_cons in Hb. destruct Hb as [_ Hb]. apply bytes_ok_cons in Hb. destruct Hb as [Hb _]. exact Hb. }
  unfold Roundtrip.Auth.AH_MAX_ICV_LEN. is_false (1016 <? (b1 - 1) * 4).
  rewrite XE.run_PRead_cps.
  destruct (XR.rd_exact st2 ((b1 - 1) * 4)) as [[icv|kk|e|c| | |] st3]; reflexivity.
Qed.

Lemma x4_lim_erase start st : DT.st_ok st -> rs_lim st <> None ->
  run_r (x4_read true start) st =
  XE.qmap_pair (fun a : Roundtrip.Exts4.Ipv4Extensions * N =>
                  [snd a; match Roundtrip.Exts4.x4_auth (fst a) with Some _ => 1 | None => 0 end])
               (RI.x4_read_limited st start).
Proof.
  intros Hs HL. unfold x4_read, RI.x4_read_limited.
  change Roundtrip.Exts4.X4_AUTH with AUTH. destruct (AUTH =? start); [|reflexivity].
  rewrite ah_lim_erase by assumption.
  destruct (RI.ah_read_limited st) as [[h|kk|e|c| | |] st1]; reflexivity.
Qed.

(* ---- the tail behind the LimitedReader ---- *)
Lemma tail_link {A} (prog : rprog) (rdr : rstate -> qres A * rstate) (f : A -> list N)
      (kind : N -> outcome) bs r2 hl m ls off ly :
  len bs = hl + len r2 ->
  run_r prog (RI.limited r2 m ls off ly) = XE.qmap_pair f (rdr (RI.limited r2 m ls off ly)) ->
  DT.qreg (fst (rdr (RI.limited r2 m ls off ly))) ->
  (fst (rdr (RI.limited r2 m ls off ly)) = QContent CHopNotAtStart -> kind 1 = OContent (KC CHopNotAtStart)) ->
  (fst (rdr (RI.limited r2 m ls off ly)) = QContent CAuthZeroLen -> kind 0 = OContent (KC CAuthZeroLen)) ->
  erase_len (outcome_of_run (run_r prog (mk_rstate (mk_fsource r2 65536 false hl) (Some (lr_new m ls off ly))))) =
  rt_outcome kind bs snd (RI.of_q (rdr (RI.limited r2 m ls off ly))).
Proof.
  intros L E G K1 K0.
  destruct (run_r_pulled prog r2 65536 false (Some (lr_new m ls off ly))) as (res & n & lim' & Hn & R & EOF);
    [lia|cbn; lia|].
  unfold RI.limited, XR.cursor in *. rewrite (R 0) in E. rewrite (R hl).
  destruct (rdr _) as [q st']. unfold XE.qmap_pair in E. cbn [fst snd] in *.
  injection E as -> <-.
  destruct q as [a|k|e|c| | |]; cbn [DT.qreg] in G; try contradiction; cbn [EP.ExtChain.ReadView.qmap outcome_of_run RI.of_q].
  - cbn [rt_outcome erase_len snd rs_src src_pulled src_data]. rewrite len_drop. f_equal. lia.
  - rewrite (EOF k eq_refl). reflexivity.
  - reflexivity.
  - destruct c; try contradiction; cbn [rt_outcome erase_len].
    + symmetry. apply K1. reflexivity.
    + symmetry. apply K0. reflexivity.
Qed.

Lemma ah_lim_content st c : fst (RI.ah_read_limited st) = QContent c -> c = CAuthZeroLen.
Proof.
  unfold RI.ah_read_limited. intros H.
  apply DT.qbind_content in H. destruct H as [H|(u & st1 & _ & H)]; [destruct (DT.start_layer_no_content _ _ _ _ H)|].
  apply DT.qbind_content in H. destruct H as [H|(d & st2 & _ & H)]; [destruct (DT.rd_exact_no_content _ _ _ H)|].
  destruct d as [|b0 [|b1 [|b2 [|b3 [|b4 [|b5 [|b6 [|b7 [|b8 [|b9 [|b10 [|b11 [|x t]]]]]]]]]]]]]; try discriminate.
  destruct (b1 <? 1); [injection H as <-; reflexivity|].
  destruct (_ <? _); [discriminate|].
  apply DT.qbind_content in H. destruct H as [H|(p & st3 & _ & H)]; [destruct (DT.rd_exact_no_content _ _ _ H)|discriminate].
Qed.

Lemma x4_lim_content st start c : fst (RI.x4_read_limited st start) = QContent c -> c = CAuthZeroLen.
Proof.
  unfold RI.x4_read_limited. destruct (_ =? start); [|discriminate]. intros H.
  apply DT.qbind_content in H. destruct H as [H|(p & st3 & _ & H)]; [exact (ah_lim_content _ _ H)|discriminate].
Qed.

(* ---- IpHeaders ---- *)
(* codes of the value reader: IHL (0..4) when the version nibble is 4 and the IHL is below 5;
   1000 + version for an unsupported version; behind the IP header 0 = zero AH payload length,
   1 = hop-by-hop header not at the start.  The first byte tells which. *)
Definition iph_kind (bs : bytes) (c : N) : outcome :=
  match bs with
  | b0 :: _ =>
      if N.shiftr b0 4 =? 4 then
        if N.land b0 15 <? 5 then OContent (KC CIhl) else OContent (KC CAuthZeroLen)
      else if N.shiftr b0 4 =? 6 then
        if c =? 1 then OContent (KC CHopNotAtStart) else OContent (KC CAuthZeroLen)
      else OContent (KC CVersion)
  | [] => OBad 213
  end.

Lemma O_limit m ls off ly k d p :
  O (PLimit m ls off ly k) (mk_st d p MPlain) =
  outcome_of_run (run_r k (mk_rstate (mk_fsource d 65536 false p) (Some (lr_new m ls off ly)))).
Proof. reflexivity. Qed.

Lemma rt_outcome_map {A B} kind bs (g : A -> B) (r : RC.res (A * bytes)) :
  rt_outcome kind bs snd (match r with RC.Err e => RC.Err e | RC.Ok (a, r3) => RC.Ok (g a, r3) end) =
  rt_outcome kind bs snd r.
Proof. destruct r as [[a r3]|[]]; reflexivity. Qed.

Theorem link_ip_headers bs : bytes_ok bs ->
  erase_len (read_outcome HIpHeaders bs) = rt_outcome (iph_kind bs) bs snd (RI.iph_read bs).
Proof.
  intros Hb. rewrite read_outcome_O by discriminate.
  unfold read_prog, ip_headers_read, RI.iph_read. unfold RC.read_exact at 1.
  destruct (len bs <? 1) eqn:E; ltb_tac.
  { rd_step; [lia|reflexivity]. }
  rd_step; [|lia].
  split_pre bs 1%nat E. rewrite take_pre, drop_pre by reflexivity.
  apply bytes_ok_app in Hb. destruct Hb as [_ Ht].
  unfold at_. change (rd [n] 0) with (Some n). cbv iota beta zeta.
  change (RC.shr n 4) with (N.shiftr n 4). change (RC.band n 15) with (N.land n 15).
  unfold iph_kind. cbn [app]. rewrite <- shr4_div, <- land15_mod.
  assert (M : N.land n 15 < 16) by (rewrite land15_mod; apply N.mod_lt; discriminate).
  destruct (N.shiftr n 4 =? 4).
  - (* IPv4 *)
    destruct (N.land n 15 <? 5) eqn:Ei; ltb_tac; [reflexivity|].
    is_false (60 <? N.land n 15 * 4). unfold RC.read_exact.
    rd_step; [rt_settle|rt_settle; reflexivity].
    set (hl := N.land n 15 * 4) in *.
    set (more := take (hl - 1) t). set (r2 := drop (hl - 1) t).
    assert (Lm : len more = hl - 1) by (unfold more; rewrite len_take; lia).
    assert (L2 : len ([n] ++ t) = 0 + 1 + (hl - 1) + len r2).
    { unfold r2. rewrite len_app, len_drop. change (len [n]) with 1. lia. }
    assert (Hr2 : bytes_ok r2) by (apply bytes_ok_drop, Ht).
    clearbody more r2.
    assert (E19 : N.of_nat 19 <= len more) by (change (N.of_nat 19) with 19; lia).
    destruct (Equiv.ReadValues.split_n 19 more E19) as (pre & os & -> & Hpre). conses pre Hpre.
    assert (Los : len os = hl - 20).
    { rewrite len_app in Lm. unfold len at 1 in Lm. cbn [length] in Lm. lia. }
    clear Lm E19.
    rd_red. unfold Roundtrip.Ipv4.ip4_to_header. is_false (40 <? len os). cbv iota beta zeta.
    cbn [Roundtrip.Ipv4.i4_total_len Roundtrip.Ipv4.i4_protocol].
    change (be16 n1 n2) with (n1 * 256 + n2).
    destruct (n1 * 256 + n2 <? hl) eqn:Et; [reflexivity|].
    rewrite O_limit.
    match goal with |- _ = rt_outcome ?k ?b snd (match ?r with RC.Ok _ => _ | RC.Err _ => _ end) =>
      transitivity (rt_outcome k b snd r); [|destruct r as [[[ext next] r3]|[]]; reflexivity] end.
    eapply (tail_link (x4_read true n8) (fun st => RI.x4_read_limited st n8)).
    + exact L2.
    + apply x4_lim_erase; [|cbn; discriminate].
      split; [cbn; lia|]. split; [cbn; lia|]. exact Hr2.
    + apply DT.x4_read_limited_reg; [|cbn; discriminate].
      split; [cbn; lia|]. split; [cbn; lia|]. exact Hr2.
    + intros H. apply x4_lim_content in H. discriminate.
    + intros _. reflexivity.
  - destruct (N.shiftr n 4 =? 6); [|reflexivity].
    (* IPv6 *)
    unfold ipv6_read_without_version, Roundtrip.Ipv6.ip6_read_without_version, RC.read_exact.
    rd_step; [rt_settle|rt_settle; reflexivity].
    assert (E39 : N.of_nat 39 <= len t) by (change (N.of_nat 39) with 39; lia).
    split_pre t 39%nat E39. rewrite take_pre, drop_pre by reflexivity. cbv iota beta.
    rd_red.
    match goal with |- context [RC.slice_range ?l 7 23] =>
      assert (exists a, RC.slice_range l 7 23 = Some a) as [a ->] by (eexists; reflexivity);
      assert (exists b, RC.slice_range l 23 39 = Some b) as [b ->] by (eexists; reflexivity) end.
    cbn [Roundtrip.Ipv6.i6_next_header Roundtrip.Ipv6.i6_payload_length].
    unfold Roundtrip.Ipv6.ip6_header_len. change (be16 n3 n4) with (n3 * 256 + n4).
    rewrite O_limit.
    match goal with |- _ = rt_outcome ?k ?b snd (match ?r with RC.Ok _ => _ | RC.Err _ => _ end) =>
      transitivity (rt_outcome k b snd r); [|destruct r as [[[ext next] r3]|[]]; reflexivity] end.
    apply bytes_ok_app in Ht. destruct Ht as [_ Ht0].
    eapply (tail_link (x6_read true n5) (XR.read6 true n5)).
    + lens. lia.
    + apply XE.read6_erase. unfold XE.chunk_ok. cbn. lia.
    + apply (DT.read6_reg true n5 (XR.cursor t0)); cbn; lia.
    + intros _. reflexivity.
    + intros _. reflexivity.
Qed.

(* ---- Ipv6Extensions: C12's value reader read6 (the reader of C06_read_value_ipv6_exts) ---- *)
Definition x6_kind (c : N) : outcome :=
  if c =? 1 then OContent (KC CHopNotAtStart) else OContent (KC CAuthZeroLen).

Theorem link_ipv6_exts start bs :
  erase_len (read_outcome (HIpv6Exts start) bs) =
  rt_outcome x6_kind bs snd (RI.of_q (XR.read6 false start (mk_rstate (XR.cursor bs) None))).
Proof.
  rewrite read_outcome_O by discriminate. unfold O, read_prog.
  change (mk_st bs 0 MPlain) with (mk_rstate (XR.cursor bs) None).
  pose proof (XE.read6_erase false start (mk_rstate (XR.cursor bs) None)) as E.
  pose proof (DT.exts6_read_total start bs) as G.
  destruct (run_r_pulled (x6_read false start) bs 65536 false None) as (res & n & lim' & Hn & R & EOF);
    [lia|exact I|].
  unfold XR.cursor in *. rewrite (R 0) in E. rewrite (R 0).
  specialize (E ltac:(unfold XE.chunk_ok; cbn; lia)).
  destruct (XR.read6 false start _) as [q st']. unfold XE.qmap_pair in E. cbn [fst snd] in *.
  injection E as -> <-.
  destruct q as [a|k|e|c| | |]; cbn [DT.qreg] in G; try contradiction;
    cbn [EP.ExtChain.ReadView.qmap outcome_of_run RI.of_q].
  - cbn [rt_outcome erase_len snd rs_src src_pulled src_data]. rewrite len_drop. f_equal. lia.
  - rewrite (EOF k eq_refl). reflexivity.
  - reflexivity.
  - destruct c; try contradiction; reflexivity.
Qed.

(* ---- all 17 header types: one reader ----------------------------------------------- *)
(* the outcome of the VALUE reader of each header type (the readers of the C06_read_value theorems) *)
Definition rt_read_outcome (t : hdr_type) (bs : bytes) : outcome :=
  match t with
  | HEthernet2 => rt_outcome no_kind bs snd (Roundtrip.Eth.eth_read bs)
  | HSingleVlan => rt_outcome no_kind bs snd (Roundtrip.Vlan.vl_read bs)
  | HLinuxSll => rt_outcome (sll_kind bs) bs snd (Roundtrip.Sll.sll_read bs)
  | HMacsec => rt_outcome macsec_kind bs snd (Roundtrip.Macsec.mac_read bs)
  | HIpv4 => rt_outcome (ipv4_kind bs) bs snd (Roundtrip.Ipv4.ip4_read bs)
  | HIpv6 => rt_outcome ipv6_kind bs snd (Roundtrip.Ipv6.ip6_read bs)
  | HIpAuth => rt_outcome auth_kind bs snd (Roundtrip.Auth.ah_read bs)
  | HIpv6RawExt => rt_outcome no_kind bs snd (Roundtrip.RawExt.rx_read bs)
  | HIpv6Frag => rt_outcome no_kind bs snd (Roundtrip.Frag.frag_read bs)
  | HArp => rt_outcome no_kind bs snd (Roundtrip.Arp.arp_read bs)
  | HTcp => rt_outcome tcp_kind bs snd (Roundtrip.Tcp.read bs)
  | HUdp => rt_outcome no_kind bs snd (Roundtrip.Udp.udp_read bs)
  | HIcmpv4 => rt_outcome no_kind bs snd (Roundtrip.Icmp4.icmp4_read bs)
  | HIcmpv6 => rt_outcome no_kind bs snd (Roundtrip.Icmp6.icmp6_read bs)
  | HIpv4Exts start => rt_outcome auth_kind bs snd (Roundtrip.Exts4.x4_read bs start)
  | HIpv6Exts start =>
      rt_outcome x6_kind bs snd (RI.of_q (XR.read6 false start (mk_rstate (XR.cursor bs) None)))
  | HIpHeaders => rt_outcome (iph_kind bs) bs snd (RI.iph_read bs)
  end.

(* the types whose reader has no LimitedReader and no loop: plain equality *)
Definition plain_reader (t : hdr_type) : bool :=
  match t with HIpv6Exts _ | HIpHeaders => false | _ => true end.

Theorem read_link_exact t bs : bytes_ok bs -> plain_reader t = true ->
  read_outcome t bs = rt_read_outcome t bs.
Proof.
  intros Hb Hp. destruct t; try discriminate; unfold rt_read_outcome.
  - apply link_ethernet2.
  - apply link_single_vlan.
  - apply link_linux_sll.
  - apply link_macsec, Hb.
  - apply link_ipv4.
  - apply link_ipv6.
  - apply link_ip_auth, Hb.
  - apply link_ipv6_raw_ext, Hb.
  - apply link_ipv6_frag.
  - apply link_arp, Hb.
  - apply link_tcp, Hb.
  - apply link_udp.
  - apply link_icmpv4.
  - apply link_icmpv6.
  - apply link_ipv4_exts, Hb.
Qed.

Lemma erase_len_idem o : erase_len (erase_len o) = erase_len o.
Proof. destruct o; reflexivity. Qed.

Lemma erase_rt {A} kind bs (rest : A -> bytes) (r : RC.res A) :
  (forall c, erase_len (kind c) = kind c) ->
  erase_len (rt_outcome kind bs rest r) = rt_outcome kind bs rest r.
Proof. intros K. destruct r as [a|[]]; cbn [rt_outcome erase_len]; auto. Qed.

Theorem read_link t bs : bytes_ok bs -> erase_len (read_outcome t bs) = rt_read_outcome t bs.
Proof.
  intros Hb. destruct (plain_reader t) eqn:P.
  - (* a plain reader never answers with a length error: nothing to erase *)
    rewrite (read_link_exact t bs Hb P).
    destruct t; try discriminate; unfold rt_read_outcome; apply erase_rt; intros c;
      unfold no_kind, sll_kind, macsec_kind, ipv4_kind, ipv6_kind, auth_kind, tcp_kind;
      repeat match goal with |- context [match ?x with _ => _ end] => destruct x end; reflexivity.
  - destruct t; try discriminate.
    + apply link_ipv6_exts.
    + apply link_ip_headers, Hb.
Qed.

(* what the link says, spelled out for a reader that returns (header, rest) *)
Corollary read_link_ok {A} kind bs (r : RC.res (A * bytes)) o : o = rt_outcome kind bs snd r ->
  forall h rest, r = RC.Ok (h, rest) -> o = OOk (len bs - len rest).
Proof. intros -> h rest ->. reflexivity. Qed.
