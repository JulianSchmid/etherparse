(* IpHeaders on the value model Roundtrip/IpHeaders.v: `IpHeaders::read` over a Cursor returns the
   same struct value and ip number as `IpHeaders::from_slice` and leaves the cursor right behind the
   headers, whenever from_slice accepts -- outside the class F15 (IPv6 payload_length 0 with an
   extension header following).  "The slice holds the announced packet" is implied by from_slice's Ok. *)
From EP Require Import Base.Bytes Roundtrip.Common Roundtrip.CommonProofs Roundtrip.LinkNetLemmas.
From EP Require Import Roundtrip.Ipv4 Roundtrip.Ipv6 Roundtrip.Ipv6Proofs.
From EP Require Import Roundtrip.Auth Roundtrip.Exts4 Roundtrip.Exts4Proofs.
From EP Require Import Roundtrip.IpHeaders Roundtrip.IpHeadersProofs.
From EP Require Equiv.ReadValuesNet Equiv.ReadProofs.
From EP Require IoFault.Model ExtChain.Spec ExtChain.Model ExtChain.Proofs ExtChain.ReadModel
  ExtChain.ReadView ExtChain.ReadProofs Roundtrip.Exts6Proofs.
From Coq Require Import ZArith Lia ZifyN.
Local Open Scope N_scope.

(* the class F15 on the decoded value *)
Definition iph_zero_len_ext (h : IpHeaders) : bool :=
  match h with
  | IpV4 _ _ => false
  | IpV6 hd _ => (i6_payload_length hd =? 0) && ExtChain.Spec.is_ext_number (i6_next_header hd)
  end.

(* ---- the authentication header decoder only looks at the header's own bytes ---- *)
Lemma ah_from_slice_frame s t h r : ah_from_slice s = Ok (h, r) -> ah_from_slice (s ++ t) = Ok (h, r ++ t).
Proof.
  unfold ah_from_slice, ah_slice_from_slice.
  destruct (len s <? 12) eqn:L12; [discriminate|]. ltb_t L12.
  destruct (rd s 1) as [pl|] eqn:R1; [|discriminate].
  destruct (pl <? 1) eqn:Z; [discriminate|].
  destruct (len s <? (pl + 2) * 4) eqn:LL; [discriminate|]. ltb_t LL.
  rewrite len_app. rewrite (ltb_false (len s + len t) 12) by lia.
  rewrite Exts6Proofs.rd_app_lt by lia. rewrite R1, Z.
  rewrite (ltb_false (len s + len t) ((pl + 2) * 4)) by lia.
  rewrite Exts6Proofs.take_app_le by lia.
  unfold slice_from. rewrite len_take, len_app.
  rewrite (leb_true (N.min ((pl + 2) * 4) (len s)) (len s)) by lia.
  rewrite (leb_true (N.min ((pl + 2) * 4) (len s)) (len s + len t)) by lia.
  destruct (ah_to_header (take ((pl + 2) * 4) s)); [|discriminate].
  intros H. apply Ok_inj in H. injection H as <- <-. rewrite Exts6Proofs.drop_app_le by lia. reflexivity.
Qed.

Lemma x4_read_of_prefix start d k e n r' : bytes_ok d ->
  x4_from_slice start (take k d) = Ok (e, n, r') -> x4_read d start = Ok (e, n, r' ++ drop k d).
Proof.
  intros OK H. destruct (N.eqb_spec X4_AUTH start) as [E|E].
  - subst start. rewrite x4_from_slice_auth in H.
    destruct (ah_from_slice (take k d)) as [[h r]|] eqn:A; [|discriminate].
    apply Ok_inj in H. injection H as <- <- <-.
    pose proof (ah_from_slice_frame _ (drop k d) _ _ A) as F. rewrite take_drop in F.
    unfold x4_read. change (X4_AUTH =? X4_AUTH) with true. cbv iota.
    rewrite (Equiv.ReadValuesNet.ah_read_eq_from_slice d OK), F. reflexivity.
  - unfold x4_from_slice, x4_slice_from_slice in H. unfold x4_read.
    apply N.eqb_neq in E. rewrite E in *. apply Ok_inj in H. injection H as <- <- <-.
    rewrite take_drop. reflexivity.
Qed.

(* the header bytes the reader assembles are the ones the slice decoder looks at *)
Lemma first_cons_take (bs : bytes) b0 n : rd bs 0 = Some b0 -> 1 <= n -> b0 :: take (n - 1) (drop 1 bs) = take n bs.
Proof.
  intros R H. destruct bs as [|c r]; [discriminate|]. unfold rd in R. cbn in R. injection R as ->.
  change (drop 1 (b0 :: r)) with r. unfold take.
  replace (N.to_nat n) with (S (N.to_nat (n - 1))) by lia. reflexivity.
Qed.

(* ---- IPv4 ---- *)
Theorem iph_read_eq_from_slice_v4 bs h p : bytes_ok bs -> iph_from_ipv4_slice bs = Ok (h, p) ->
  iph_read bs = Ok (h, ipp_ip_number p, drop (iph_header_len h) bs).
Proof.
  intros OK H. unfold iph_from_ipv4_slice in H.
  destruct (ip4_from_slice bs) as [[hd hrest]|] eqn:D4; [|discriminate].
  destruct (ip4_from_slice_inv _ _ _ D4) as (b0 & R0 & V & I & L20 & LH & TH & HL & ->).
  cbv zeta in H. rewrite HL in H. set (hl := band b0 15 * 4) in *.
  destruct (hl <=? i4_total_len hd) eqn:T1; [|discriminate]. ltb_t T1.
  set (pl := i4_total_len hd - hl) in *.
  destruct (len (drop hl bs) <? pl) eqn:T2; [discriminate|]. ltb_t T2. rewrite len_drop in T2.
  rewrite slice_range_eq in H by (rewrite ?len_drop; lia). rewrite N.sub_0_r, drop_0 in H.
  unfold v4_tail in H.
  destruct (x4_from_slice (i4_protocol hd) (take pl (drop hl bs))) as [[[e nx] rest']|] eqn:DX; [|discriminate].
  apply Ok_inj in H. injection H as <- <-. cbn [ipp_ip_number].
  assert (OKD : bytes_ok (drop hl bs)) by (apply bytes_ok_drop; exact OK).
  pose proof (x4_read_of_prefix _ _ _ _ _ _ OKD DX) as XR.
  destruct (x4_enc_dec _ _ _ _ _ (bytes_ok_take _ _ OKD) DX) as (WX & _ & LK & _ & xb & EXB & SPX & AGX & _).
  assert (LXL : x4_header_len e <= pl).
  { assert (L := f_equal len SPX). rewrite len_app in L.
    assert (LX : len (take (x4_header_len e) (take pl (drop hl bs))) = x4_header_len e).
    { rewrite <- (agree_len _ _ _ AGX). destruct (x4_ser_agree e [] (i4_protocol hd) WX LK) as (b & EB & LB & _).
      cbn [app] in EB. rewrite EXB in EB. apply Ok_inj in EB. subst b. exact LB. }
    rewrite LX in L. rewrite len_take, len_drop in L. lia. }
  (* the reader *)
  pose proof (band15_lt b0) as B15. ltb_t I.
  unfold iph_read, read_exact at 1. rewrite (ltb_false (len bs) 1) by lia.
  assert (T1b : take 1 bs = [b0]).
  { destruct bs as [|c r]; [discriminate|]. unfold rd in R0. cbn in R0. injection R0 as ->. reflexivity. }
  rewrite T1b. cbv beta iota zeta. rewrite V. change (4 =? 4) with true. cbv iota.
  rewrite (ltb_false (band b0 15) 5) by lia. fold hl.
  rewrite (ltb_false 60 hl) by (subst hl; lia).
  unfold read_exact. rewrite len_drop. rewrite (ltb_false (len bs - 1) (hl - 1)) by lia.
  rewrite (first_cons_take bs b0 hl R0) by (subst hl; lia). rewrite TH.
  rewrite (ltb_false (i4_total_len hd) hl) by lia. fold pl.
  rewrite drop_drop. replace (1 + (hl - 1)) with hl by (subst hl; lia).
  rewrite limited_is_st.
  erewrite x4_read_limited_of_read;
    [ | lia | cbn; lia | exact XR | cbn [IoFault.Model.lr_new IoFault.Model.lr_max IoFault.Model.lr_read]; lia ].
  f_equal. f_equal.
  (* rest' ++ drop pl (drop hl bs) = drop (hl + xl) bs *)
  unfold iph_header_len. rewrite HL. fold hl.
  rewrite <- (drop_drop (x4_header_len e) hl bs).
  transitivity (drop (x4_header_len e) (take pl (drop hl bs) ++ drop pl (drop hl bs)));
    [|rewrite take_drop; reflexivity].
  rewrite SPX. rewrite <- app_assoc.
  rewrite drop_app_len; [reflexivity|].
  rewrite <- (agree_len _ _ _ AGX). destruct (x4_ser_agree e [] (i4_protocol hd) WX LK) as (b & EB & LB & _).
  cbn [app] in EB. rewrite EXB in EB. apply Ok_inj in EB. subst b. symmetry. exact LB.
Qed.

(* ---- IPv6 ---- *)
Module XM := EP.ExtChain.Model.
Module XV := EP.ExtChain.ReadView.
Module XRP := EP.ExtChain.ReadProofs.
Module IOM := EP.IoFault.Model.

Lemma read6_loop_other fuel lim e n st : XM.arm_of n = XM.AOther ->
  ExtChain.ReadModel.read6_loop (S fuel) lim e n st = (IOM.QOk (e, n), st).
Proof. intros H. cbn [ExtChain.ReadModel.read6_loop]. rewrite H. reflexivity. Qed.

Theorem iph_read_eq_from_slice_v6 bs h p : bytes_ok bs -> iph_from_ipv6_slice bs = Ok (h, p) ->
  iph_zero_len_ext h = false -> iph_read bs = Ok (h, ipp_ip_number p, drop (iph_header_len h) bs).
Proof.
  intros OK H NF. unfold iph_from_ipv6_slice in H.
  destruct (ip6_from_slice bs) as [[hd hrest]|] eqn:D6; [|discriminate].
  destruct (ip6_enc_dec bs hd hrest OK D6) as (W & SPL & L40 & _).
  assert (OKH : bytes_ok hrest) by (rewrite SPL in OK; apply bytes_ok_app in OK; tauto).
  assert (LBS : len bs = 40 + len hrest) by (rewrite SPL at 1; rewrite len_app, L40; reflexivity).
  destruct (ip6_read_inv _ _ _ (proj2 (ip6_dec_enc hd hrest W))) as (v0 & r1 & RE & V6 & RW).
  rewrite <- SPL in RE.
  unfold iph_read. rewrite RE. cbv beta iota zeta.
  rewrite V6. change (6 =? 4) with false. change (6 =? 6) with true. cbv iota. rewrite RW.
  rewrite limited_is_st.
  assert (DROP : forall k, drop (40 + k) bs = drop k hrest).
  { intros k. rewrite SPL at 1. apply drop_app_more. rewrite L40. reflexivity. }
  destruct ((0 =? i6_payload_length hd) && (40 <? len bs)) eqn:Z.
  - (* payload_length 0, data behind the header: outside F15 no extension header follows *)
    apply andb_true_iff in Z. destruct Z as [Z0 _]. ltb_t Z0.
    unfold v6_tail in H.
    destruct (of_x6 (XM.from_slice (i6_next_header hd) hrest)) as [[[e n] rest']|] eqn:D; [|discriminate].
    apply of_x6_ok in D. apply Ok_inj in H. injection H as <- <-. cbn [ipp_ip_number].
    unfold iph_zero_len_ext in NF. rewrite <- Z0 in NF. cbn [andb N.eqb] in NF.
    pose proof (ExtChain.Proofs.arm_of_other _ NF) as ARM.
    unfold XM.from_slice, XM.LOOP_FUEL in D. rewrite (ExtChain.Proofs.hop_eqb_other _ NF) in D.
    rewrite Exts6Readers.stops_loop in D by (unfold Exts6Readers.stops; rewrite ARM; reflexivity).
    injection D as <- <- <-.
    unfold ExtChain.ReadModel.read6, XM.LOOP_FUEL. rewrite (ExtChain.Proofs.hop_eqb_other _ NF).
    rewrite read6_loop_other by exact ARM.
    unfold of_q, XV.mk_st. cbn [IOM.rs_src IoFault.Spec.src_data].
    unfold iph_header_len. change (XM.header_len XM.exts6_default) with 0. rewrite (DROP 0). reflexivity.
  - cbv zeta in H. destruct (len hrest <? i6_payload_length hd) eqn:T; [discriminate|]. ltb_t T.
    rewrite slice_range_eq in H by lia. rewrite N.sub_0_r, drop_0 in H.
    unfold v6_tail in H. set (pl := i6_payload_length hd) in *.
    destruct (of_x6 (XM.from_slice (i6_next_header hd) (take pl hrest))) as [[[e n] rest']|] eqn:D; [|discriminate].
    apply of_x6_ok in D. apply Ok_inj in H. injection H as <- <-. cbn [ipp_ip_number].
    set (r := IOM.lr_new pl IOM.LS_IPV6_PAYLOAD (ip6_header_len hd) IOM.L_IPV6H).
    assert (MOK : XV.m_ok hrest (XV.MLim r)).
    { cbn [XV.m_ok r IOM.lr_new IOM.lr_read IOM.lr_max]. lia. }
    assert (VW : XV.view hrest (XV.MLim r) = take pl hrest) by (unfold r; apply view_lim_new).
    rewrite <- VW in D.
    destruct (XRP.read6_eq_from_slice hrest 65536 0 (XV.MLim r) (i6_next_header hd) e n rest'
                ltac:(lia) OKH MOK D) as (m' & k & EV & KA & R6 & V' & MOK' & LM).
    cbn [XV.lim_of] in R6. rewrite R6. unfold of_q, XV.mk_st. cbn [IOM.rs_src IoFault.Spec.src_data].
    rewrite VW in D, EV.
    destruct (Exts6Proofs.exts6_enc_dec (i6_next_header hd) (take pl hrest) e n rest' (bytes_ok_take _ _ OKH) D)
      as (V & xb & cons' & EW & NH & SP & HE & LX & _).
    assert (K : k = XM.header_len e).
    { assert (L1 := f_equal len EV). assert (L2 := f_equal len SP).
      rewrite !len_app, !len_take in L1. rewrite !len_app, len_take in L2.
      rewrite <- (Exts6Proofs.hdr_eq_len _ _ HE), LX in L2.
      cbn [XV.avail r IOM.lr_new IOM.lr_max IOM.lr_read] in KA. lia. }
    unfold iph_header_len. rewrite DROP, K. reflexivity.
Qed.

(* ---- both versions ---- *)
Theorem iph_read_eq_from_slice bs h p : bytes_ok bs -> iph_from_slice bs = Ok (h, p) ->
  iph_zero_len_ext h = false -> iph_read bs = Ok (h, ipp_ip_number p, drop (iph_header_len h) bs).
Proof.
  intros OK H NF. destruct (iph_from_slice_version bs _ H) as (b0 & R0 & [[V D]|[V D]]).
  - apply iph_read_eq_from_slice_v4; assumption.
  - apply iph_read_eq_from_slice_v6; assumption.
Qed.

(* ---- the class F15 of Equiv.ReadProofs (a predicate on the bytes) is this class ---- *)
Lemma v4_tail_shape hd r h p : v4_tail hd r = Ok (h, p) -> exists e, h = IpV4 hd e.
Proof.
  unfold v4_tail. destruct (x4_from_slice _ _) as [[[e nx] r']|]; [|discriminate].
  intros H. apply Ok_inj in H. injection H as <- _. eauto.
Qed.

Lemma v6_tail_shape hd r ls h p : v6_tail hd r ls = Ok (h, p) -> exists e, h = IpV6 hd e.
Proof.
  unfold v6_tail. destruct (of_x6 _) as [[[e nx] r']|]; [|discriminate].
  intros H. apply Ok_inj in H. injection H as <- _. eauto.
Qed.

Lemma ip6_to_header_fields s h : ip6_to_header s = Ok h ->
  exists p0 p1, rd s 4 = Some p0 /\ rd s 5 = Some p1 /\ rd s 6 = Some (i6_next_header h)
    /\ i6_payload_length h = be16 p0 p1.
Proof.
  unfold ip6_to_header.
  destruct s as [|a0 [|a1 [|a2 [|a3 [|a4 [|a5 [|a6 [|a7 r]]]]]]]]; try discriminate.
  destruct (slice_range _ 8 24); [|discriminate]. destruct (slice_range _ 24 40); [|discriminate].
  intros H. apply Ok_inj in H. subst h. exists a4, a5. repeat split.
Qed.

Lemma be16_eqb_0 a b : (be16 a b =? 0) = (a =? 0) && (b =? 0).
Proof.
  unfold be16. destruct (N.eqb_spec a 0), (N.eqb_spec b 0), (N.eqb_spec (a * 256 + b) 0); cbn [andb]; lia.
Qed.

Lemma is_ext_number_eqbs n :
  ExtChain.Spec.is_ext_number n = (n =? 0) || (n =? 43) || (n =? 44) || (n =? 51) || (n =? 60).
Proof.
  unfold ExtChain.Spec.is_ext_number. cbn [map ExtChain.Spec.rfc8200_order ExtChain.Spec.ip_number_of existsb].
  destruct (n =? 0), (n =? 60), (n =? 43), (n =? 44), (n =? 51); reflexivity.
Qed.

Lemma F15_is_zero_len_ext bs h p : iph_from_slice bs = Ok (h, p) ->
  Equiv.ReadProofs.F15 bs = iph_zero_len_ext h.
Proof.
  intros H. destruct (iph_from_slice_version bs _ H) as (b0 & R0 & [[V D]|[V D]]).
  - (* version 4: both sides are false; the header has 20 octets, so the octets F15 looks at exist *)
    unfold iph_from_ipv4_slice in D.
    destruct (ip4_from_slice bs) as [[hd hr]|] eqn:D4; [|discriminate].
    destruct (ip4_from_slice_inv _ _ _ D4) as (_ & _ & _ & _ & L20 & _).
    cbv zeta in D. destruct (_ <=? _); [|discriminate]. destruct (_ <? _); [discriminate|].
    destruct (slice_range _ _ _); [|discriminate].
    destruct (v4_tail_shape _ _ _ _ D) as (e & ->). cbn [iph_zero_len_ext].
    destruct (rd_lt_Some bs 4) as (p0 & R4); [lia|]. destruct (rd_lt_Some bs 5) as (p1 & R5); [lia|].
    destruct (rd_lt_Some bs 6) as (nh & R6); [lia|].
    rewrite (Equiv.ReadProofs.F15_rd bs b0 p0 p1 nh R0 R4 R5 R6).
    unfold shr in V. rewrite V. reflexivity.
  - (* version 6: payload_length and next_header are the octets 4..6 *)
    unfold iph_from_ipv6_slice in D.
    destruct (ip6_from_slice bs) as [[hd hrest]|] eqn:D6; [|discriminate].
    assert (exists e, h = IpV6 hd e) as (e & ->).
    { destruct (_ && _); [exact (v6_tail_shape _ _ _ _ _ D)|].
      cbv zeta in D. destruct (_ <? _); [discriminate|]. destruct (slice_range _ _ _); [|discriminate].
      exact (v6_tail_shape _ _ _ _ _ D). }
    cbn [iph_zero_len_ext].
    unfold ip6_from_slice, ip6_slice_from_slice in D6.
    destruct (len bs <? 40) eqn:L40; [discriminate|]. ltb_t L40.
    rewrite R0 in D6. destruct (negb (shr b0 4 =? 6)); [discriminate|].
    destruct (ip6_to_header (take 40 bs)) as [hd'|] eqn:TH; [|discriminate].
    destruct (slice_from bs 40); [|discriminate]. apply Ok_inj in D6. injection D6 as -> _.
    destruct (ip6_to_header_fields _ _ TH) as (p0 & p1 & R4 & R5 & R6 & ->).
    rewrite rd_take_lt in R4, R5, R6 by lia.
    rewrite (Equiv.ReadProofs.F15_rd bs b0 p0 p1 _ R0 R4 R5 R6).
    unfold shr in V. rewrite V, be16_eqb_0, is_ext_number_eqbs. reflexivity.
Qed.
