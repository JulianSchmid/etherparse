(* Equiv/ReadSimple.v -- C06 group 3: read(Cursor(bs)) against from_slice(bs) for
   the header types whose reader is a fixed part followed by a length-dependent
   rest (no loop, no LimitedReader). *)
From EP Require Import Base.Bytes Base.Lists Parse.Types Parse.Slices Parse.Cursor Parse.Repr Parse.HdrModel Parse.HdrView
  IoFault.Spec IoFault.Model IoFault.Proofs Equiv.Model Equiv.ModelRead Equiv.Proofs Equiv.ReadProofs
  Equiv.ReadBase.
From Coq Require Import ZArith Lia ZifyN ZifyBool.

Local Open Scope N_scope.

Ltac getb bs i b H := destruct (rd_lt_Some bs i) as [b H]; [try lia|].
Ltac ltb_tac :=
  repeat match goal with
  | H : (_ <? _) = true |- _ => apply N.ltb_lt in H
  | H : (_ <? _) = false |- _ => apply N.ltb_ge in H
  | H : (_ <=? _) = true |- _ => apply N.leb_le in H
  | H : (_ <=? _) = false |- _ => apply N.leb_gt in H
  | H : (_ =? _) = true |- _ => apply N.eqb_eq in H
  | H : (_ =? _) = false |- _ => apply N.eqb_neq in H
  end.

Lemma rd_byte bs i v : bytes_ok bs -> rd bs i = Some v -> v < 256.
Proof. apply rd_ok. Qed.

(* the final step of a slice decoder that hands out the first n bytes *)
Lemma out_subU (bs : bytes) n : n <= len bs ->
  outcome_of_res s_len (subU (mk_slice bs) 0 n) = OOk n.
Proof.
  intros H. rewrite subU_ok by (change (s_len (mk_slice bs)) with (len bs); lia).
  cbn [outcome_of_res mk_slice fst snd]. f_equal. apply s_len_sub. lia.
Qed.

(* ---- LinuxSllHeader ------------------------------------------------------------ *)
Theorem read_eq_slice_linux_sll bs : read_outcome HLinuxSll bs = slice_outcome HLinuxSll bs.
Proof.
  unfold read_outcome, slice_outcome, sll_read, LinuxSll.header_from_slice.
  change (s_len (mk_slice bs)) with (len bs).
  destruct (len bs <? 16) eqn:E; ltb_tac.
  - rewrite io_read_exact_fail by (cbn; lia). reflexivity.
  - rewrite io_read_exact_ok by (cbn; lia). cbn [cursor_src src_data].
    getb bs 0 b0 H0. getb bs (0 + 1) b1 H1. getb bs 2 b2 H2. getb bs (2 + 1) b3 H3.
    getb bs 14 b14 H14. getb bs (14 + 1) b15 H15.
    unfold sll_from_bytes.
    rewrite !rd_take_lt by lia.
    change 1 with (0 + 1) at 1. change 3 with (2 + 1) at 1. change 15 with (14 + 1) at 1.
    rewrite H0, H1, H2, H3, H14, H15.
    rewrite (rd16_some (mk_slice bs) 0 b0 b1) by assumption. cbn [bind].
    unfold LinuxSll.packet_type_try_from.
    destruct (be16 b0 b1 <=? 7); [|reflexivity]. cbn [bind].
    rewrite (rd16_some (mk_slice bs) 2 b2 b3) by assumption. cbn [bind].
    rewrite (rd16_some (mk_slice bs) 14 b14 b15) by assumption. cbn [bind].
    unfold LinuxSll.protocol_type_try_from.
    repeat match goal with |- context [if ?c then _ else _] => destruct c end;
      cbn [bind]; try reflexivity; now rewrite out_subU by lia.
Qed.

(* ---- MacsecHeader -------------------------------------------------------------- *)
Theorem read_eq_slice_macsec bs : bytes_ok bs ->
  read_outcome HMacsec bs = slice_outcome HMacsec bs.
Proof.
  intros Hb.
  unfold read_outcome, slice_outcome, read_prog, macsec_header_read, Macsec.header_from_slice.
  rewrite cursor_st. fold (O (PRead 6 (fun bytes => at_ bytes 0 (fun tci_an => at_ bytes 1 (fun b1 =>
    if N.testbit tci_an 7 then PFail CMacsecVersion
    else
      let unmodified := N.land tci_an 12 =? 0 in
      if unmodified && (b1 mod 64 =? 1) then PFail CMacsecShortLen
      else
        let required_len := 6 + (if unmodified then 2 else 0) + (if N.testbit tci_an 5 then 8 else 0) in
        if 6 <? required_len then PRead (required_len - 6) (fun _ => PRet [required_len])
        else PRet [required_len])))) (mk_st bs 0 MPlain)).
  rewrite O_read by exact I. cbn [avail]. change (s_len (mk_slice bs)) with (len bs).
  destruct (len bs <? 6) eqn:E; ltb_tac.
  - is_false (6 <=? len bs). reflexivity.
  - is_true (6 <=? len bs).
    getb bs 0 t H0. getb bs 1 b1 H1.
    rewrite (at_some _ 0 t) by (rewrite rd_take_lt by lia; exact H0).
    rewrite (at_some _ 1 b1) by (rewrite rd_take_lt by lia; exact H1).
    rewrite (rdU_some (mk_slice bs) 0 t) by exact H0. cbn [bind].
    rewrite (bit7 t) by (eapply rd_byte; eauto).
    rewrite (bit5 t) by (eapply rd_byte; eauto).
    destruct (Macsec.bit t 128); [reflexivity|].
    destruct (N.land t 12 =? 0); cbn [andb bind].
    + rewrite (rdU_some (mk_slice bs) 1 b1) by exact H1. cbn [bind].
      rewrite land63_mod.
      destruct (b1 mod 64 =? 1); cbn [bind]; [reflexivity|].
      destruct (Macsec.bit t 32).
      * change (6 + 2 + 8) with 16. change (6 <? 16) with true. cbv iota.
        rewrite O_read by exact I. cbn [avail m_adv]. rewrite len_drop.
        change (16 - 6) with 10.
        destruct (len bs <? 16) eqn:E2; ltb_tac.
        -- is_false (10 <=? len bs - 6). reflexivity.
        -- is_true (10 <=? len bs - 6).
           rewrite O_ret. now rewrite out_subU by lia.
      * change (6 + 2 + 0) with 8. change (6 <? 8) with true. cbv iota.
        rewrite O_read by exact I. cbn [avail m_adv]. rewrite len_drop.
        change (8 - 6) with 2.
        destruct (len bs <? 8) eqn:E2; ltb_tac.
        -- is_false (2 <=? len bs - 6). reflexivity.
        -- is_true (2 <=? len bs - 6).
           rewrite O_ret. now rewrite out_subU by lia.
    + destruct (Macsec.bit t 32).
      * change (6 + 0 + 8) with 14. change (6 <? 14) with true. cbv iota.
        rewrite O_read by exact I. cbn [avail m_adv]. rewrite len_drop.
        change (14 - 6) with 8.
        destruct (len bs <? 14) eqn:E2; ltb_tac.
        -- is_false (8 <=? len bs - 6). reflexivity.
        -- is_true (8 <=? len bs - 6).
           rewrite O_ret. now rewrite out_subU by lia.
      * change (6 + 0 + 0) with 6. change (6 <? 6) with false. cbv iota.
        rewrite O_ret. is_false (len bs <? 6).
        now rewrite out_subU by lia.
Qed.

(* ---- helpers ------------------------------------------------------------------- *)
Lemma read_outcome_O t bs : t <> HLinuxSll ->
  read_outcome t bs = O (read_prog t) (mk_st bs 0 MPlain).
Proof. intros H. destruct t; try reflexivity. now elim H. Qed.

(* `let h = XSlice::from_slice(slice)?; (h.to_header(), &slice[h.len()..])` *)
Lemma out_hdr_rest (bs : bytes) n :
  n <= len bs ->
  outcome_of_res (fun r : slice * slice => s_len (fst r))
    (let* h := subU (mk_slice bs) 0 n in let* rest := idx_from (mk_slice bs) (s_len h) in Ok (h, rest)) = OOk n.
Proof.
  intros H. rewrite subU_ok by (change (s_len (mk_slice bs)) with (len bs); lia).
  unfold mk_slice. cbn [bind fst snd]. rewrite s_len_sub by lia.
  rewrite idx_from_ok by (unfold s_len; cbn [snd]; lia). cbn [bind outcome_of_res fst].
  f_equal. apply s_len_sub. lia.
Qed.

Ltac rd_step :=
  rewrite O_read by exact I; cbn [avail m_adv]; rewrite ?len_drop;
  match goal with |- context [if ?a <=? ?b then _ else _] => destruct (a <=? b) eqn:? end; ltb_tac.

(* the data ends inside the fixed part of the header and the reader already
   rejects what it has seen (it checks the version / IHL before it has the
   whole fixed part, from_slice checks the length first) *)
Definition cut_fixed (t : hdr_type) (bs : bytes) : bool :=
  match t, bs with
  | HIpv4, b0 :: _ => (len bs <? 20) && negb (N.shiftr b0 4 =? 4)
  | HIpv6, b0 :: _ => (len bs <? 40) && negb (N.shiftr b0 4 =? 6)
  | HIpHeaders, b0 :: _ => (len bs <? 20) && (N.shiftr b0 4 =? 4) && (N.land b0 15 <? 5)
  | _, _ => false
  end.

(* ---- Ipv4Header ---------------------------------------------------------------- *)
Theorem read_eq_slice_ipv4 bs : cut_fixed HIpv4 bs = false ->
  read_outcome HIpv4 bs = slice_outcome HIpv4 bs.
Proof.
  intros Hc. rewrite read_outcome_O by discriminate.
  unfold slice_outcome, read_prog, ipv4_header_read, Ipv4Header.from_slice, Ipv4HeaderSlice.from_slice.
  change (s_len (mk_slice bs)) with (len bs).
  destruct bs as [|b0 r].
  { rewrite O_read by exact I. reflexivity. }
  cbn [cut_fixed] in Hc. set (bs := b0 :: r) in *.
  assert (H0 : rd bs 0 = Some b0) by reflexivity.
  assert (L1 : 1 <= len bs) by (unfold bs; rewrite len_cons; lia).
  rd_step; [|lia].
  rewrite (at_some _ 0 b0) by (rewrite rd_take_lt by lia; exact H0).
  rewrite <- shr4_div.
  destruct (len bs <? 20) eqn:E20; ltb_tac.
  - cbn [andb] in Hc. destruct (N.shiftr b0 4 =? 4); [|discriminate].
    unfold ipv4_read_without_version. rd_step; [lia|reflexivity].
  - rewrite (rdU_some (mk_slice bs) 0 b0) by exact H0. cbn [bind].
    destruct (N.shiftr b0 4 =? 4); cbn [negb]; [|reflexivity].
    unfold ipv4_read_without_version. rd_step; [|lia].
    rewrite land15_mod. destruct (b0 mod 16 <? 5) eqn:Ei; ltb_tac; [reflexivity|].
    destruct ((b0 mod 16 - 5) * 4 =? 0) eqn:Eo; ltb_tac.
    + rewrite O_ret. is_false (len bs <? b0 mod 16 * 4).
      replace (b0 mod 16 * 4) with 20 by lia. rewrite out_hdr_rest by lia. f_equal.
    + rd_step.
      * rewrite O_ret. is_false (len bs <? b0 mod 16 * 4). rewrite out_hdr_rest by lia. f_equal. lia.
      * is_true (len bs <? b0 mod 16 * 4). reflexivity.
Qed.

Lemma read_cut_fixed_ipv4 bs : cut_fixed HIpv4 bs = true ->
  read_outcome HIpv4 bs = OContent (KC CVersion) /\ slice_outcome HIpv4 bs = OEof.
Proof.
  intros Hc. rewrite read_outcome_O by discriminate.
  unfold slice_outcome, read_prog, ipv4_header_read, Ipv4Header.from_slice, Ipv4HeaderSlice.from_slice.
  change (s_len (mk_slice bs)) with (len bs).
  destruct bs as [|b0 r]; [discriminate|].
  cbn [cut_fixed] in Hc. set (bs := b0 :: r) in *.
  assert (H0 : rd bs 0 = Some b0) by reflexivity.
  assert (L1 : 1 <= len bs) by (unfold bs; rewrite len_cons; lia).
  apply andb_prop in Hc. destruct Hc as [Hl Hv]. rewrite Hl.
  split; [|reflexivity].
  rd_step; [|lia].
  rewrite (at_some _ 0 b0) by (rewrite rd_take_lt by lia; exact H0).
  rewrite <- shr4_div. destruct (N.shiftr b0 4 =? 4); [discriminate|reflexivity].
Qed.

(* ---- Ipv6Header ---------------------------------------------------------------- *)
Theorem read_eq_slice_ipv6 bs : cut_fixed HIpv6 bs = false ->
  read_outcome HIpv6 bs = slice_outcome HIpv6 bs.
Proof.
  intros Hc. rewrite read_outcome_O by discriminate.
  unfold slice_outcome, read_prog, ipv6_header_read, Ipv6Header.from_slice, Ipv6HeaderSlice.from_slice.
  change (s_len (mk_slice bs)) with (len bs).
  destruct bs as [|b0 r].
  { rewrite O_read by exact I. reflexivity. }
  cbn [cut_fixed] in Hc. set (bs := b0 :: r) in *.
  assert (H0 : rd bs 0 = Some b0) by reflexivity.
  assert (L1 : 1 <= len bs) by (unfold bs; rewrite len_cons; lia).
  rd_step; [|lia].
  rewrite (at_some _ 0 b0) by (rewrite rd_take_lt by lia; exact H0).
  rewrite <- shr4_div.
  destruct (len bs <? 40) eqn:E40; ltb_tac.
  - cbn [andb] in Hc. destruct (N.shiftr b0 4 =? 6); [|discriminate].
    unfold ipv6_read_without_version. rd_step; [lia|reflexivity].
  - rewrite (rdU_some (mk_slice bs) 0 b0) by exact H0. cbn [bind].
    destruct (N.shiftr b0 4 =? 6); cbn [negb]; [|reflexivity].
    unfold ipv6_read_without_version. rd_step; [|lia].
    rewrite O_ret.
    rewrite subU_ok by (change (s_len (mk_slice bs)) with (len bs); lia). cbn [bind].
    rewrite idx_from_ok by (change (s_len (mk_slice bs)) with (len bs); lia).
    cbn [bind outcome_of_res fst mk_slice snd]. f_equal. rewrite s_len_sub by lia. reflexivity.
Qed.

Lemma read_cut_fixed_ipv6 bs : cut_fixed HIpv6 bs = true ->
  read_outcome HIpv6 bs = OContent (KC CVersion) /\ slice_outcome HIpv6 bs = OEof.
Proof.
  intros Hc. rewrite read_outcome_O by discriminate.
  unfold slice_outcome, read_prog, ipv6_header_read, Ipv6Header.from_slice, Ipv6HeaderSlice.from_slice.
  change (s_len (mk_slice bs)) with (len bs).
  destruct bs as [|b0 r]; [discriminate|].
  cbn [cut_fixed] in Hc. set (bs := b0 :: r) in *.
  assert (H0 : rd bs 0 = Some b0) by reflexivity.
  assert (L1 : 1 <= len bs) by (unfold bs; rewrite len_cons; lia).
  apply andb_prop in Hc. destruct Hc as [Hl Hv]. rewrite Hl.
  split; [|reflexivity].
  rd_step; [|lia].
  rewrite (at_some _ 0 b0) by (rewrite rd_take_lt by lia; exact H0).
  rewrite <- shr4_div. destruct (N.shiftr b0 4 =? 6); [discriminate|reflexivity].
Qed.

(* ---- IpAuthHeader -------------------------------------------------------------- *)
Theorem read_eq_slice_ip_auth bs : read_outcome HIpAuth bs = slice_outcome HIpAuth bs.
Proof.
  rewrite read_outcome_O by discriminate.
  unfold slice_outcome, read_prog, ip_auth_read, with_start, IpAuthHeaderSlice.from_slice.
  change (s_len (mk_slice bs)) with (len bs).
  rd_step.
  - is_false (len bs <? 12).
    getb bs 0 nh H0. getb bs 1 pl H1.
    rewrite (at_some _ 0 nh) by (rewrite rd_take_lt by lia; exact H0).
    rewrite (at_some _ 1 pl) by (rewrite rd_take_lt by lia; exact H1).
    rewrite (rdU_some (mk_slice bs) 1 pl) by exact H1. cbn [bind].
    destruct (pl <? 1) eqn:Ep; ltb_tac; [reflexivity|].
    rd_step.
    + rewrite O_ret. is_false (len bs <? (pl + 2) * 4). rewrite out_subU by lia. f_equal. lia.
    + is_true (len bs <? (pl + 2) * 4). reflexivity.
  - is_true (len bs <? 12). reflexivity.
Qed.

(* ---- Ipv6RawExtHeader ---------------------------------------------------------- *)
Theorem read_eq_slice_ipv6_raw_ext bs : read_outcome HIpv6RawExt bs = slice_outcome HIpv6RawExt bs.
Proof.
  rewrite read_outcome_O by discriminate.
  unfold slice_outcome, read_prog, ipv6_raw_ext_read, with_start, Ipv6RawExtHeaderSlice.from_slice.
  change (s_len (mk_slice bs)) with (len bs).
  rd_step.
  - getb bs 0 nh H0. getb bs 1 hl H1.
    rewrite (at_some _ 0 nh) by (rewrite rd_take_lt by lia; exact H0).
    rewrite (at_some _ 1 hl) by (rewrite rd_take_lt by lia; exact H1).
    cbn [mk_slice snd]. rewrite H1. cbn [bind].
    rd_step.
    + rewrite O_ret. is_false (len bs <? 8). is_false (len bs <? (hl + 1) * 8).
      change (0, bs) with (mk_slice bs). rewrite out_subU by lia. f_equal. lia.
    + destruct (len bs <? 8); [reflexivity|]. is_true (len bs <? (hl + 1) * 8). reflexivity.
  - is_true (len bs <? 8). reflexivity.
Qed.

(* ---- ArpPacket ----------------------------------------------------------------- *)
Theorem read_eq_slice_arp bs : read_outcome HArp bs = slice_outcome HArp bs.
Proof.
  rewrite read_outcome_O by discriminate.
  unfold slice_outcome, read_prog, arp_packet_read, ArpPacketSlice.from_slice.
  change (s_len (mk_slice bs)) with (len bs).
  rd_step.
  - is_false (len bs <? 8).
    getb bs 4 hw H4. getb bs 5 pr H5.
    rewrite (at_some _ 4 hw) by (rewrite rd_take_lt by lia; exact H4).
    rewrite (at_some _ 5 pr) by (rewrite rd_take_lt by lia; exact H5).
    rewrite (rdU_some (mk_slice bs) 4 hw) by exact H4.
    rewrite (rdU_some (mk_slice bs) 5 pr) by exact H5. cbn [bind].
    rd_step; [|is_true (len bs <? 8 + hw * 2 + pr * 2); reflexivity].
    rd_step; [|is_true (len bs <? 8 + hw * 2 + pr * 2); reflexivity].
    rd_step; [|is_true (len bs <? 8 + hw * 2 + pr * 2); reflexivity].
    rd_step; [|is_true (len bs <? 8 + hw * 2 + pr * 2); reflexivity].
    rewrite O_ret. is_false (len bs <? 8 + hw * 2 + pr * 2). rewrite out_subU by lia. f_equal. lia.
  - is_true (len bs <? 8). reflexivity.
Qed.

(* ---- TcpHeader ----------------------------------------------------------------- *)
Theorem read_eq_slice_tcp bs : bytes_ok bs -> read_outcome HTcp bs = slice_outcome HTcp bs.
Proof.
  intros Hb. rewrite read_outcome_O by discriminate.
  unfold slice_outcome, read_prog, tcp_header_read, TcpHeader.from_slice, TcpHeaderSlice.from_slice.
  change (s_len (mk_slice bs)) with (len bs).
  rd_step.
  - is_false (len bs <? 20).
    getb bs 12 v H12.
    rewrite (at_some _ 12 v) by (rewrite rd_take_lt by lia; exact H12).
    rewrite (rdU_some (mk_slice bs) 12 v) by exact H12. cbn [bind].
    rewrite tcp_hl by (eapply rd_byte; eauto).
    destruct (v / 16 <? 5) eqn:Ed; ltb_tac.
    + is_true (v / 16 * 4 <? 20). reflexivity.
    + is_false (v / 16 * 4 <? 20).
      destruct (0 <? (v / 16 - 5) * 4) eqn:Eo; ltb_tac.
      * rd_step.
        -- rewrite O_ret. is_false (len bs <? v / 16 * 4). rewrite out_hdr_rest by lia. f_equal. lia.
        -- is_true (len bs <? v / 16 * 4). reflexivity.
      * rewrite O_ret. is_false (len bs <? v / 16 * 4). rewrite out_hdr_rest by lia. f_equal. lia.
  - is_true (len bs <? 20). reflexivity.
Qed.

(* ---- Icmpv6Header -------------------------------------------------------------- *)
Theorem read_eq_slice_icmpv6 bs : read_outcome HIcmpv6 bs = slice_outcome HIcmpv6 bs.
Proof.
  unfold slice_outcome, ends_with_header.
  assert (R : read_outcome HIcmpv6 bs = if 8 <=? len bs then OOk 8 else OEof).
  { unfold read_outcome, read_prog. apply read_fixed_outcome. }
  rewrite R. destruct (8 <=? len bs) eqn:E; ltb_tac.
  - unfold Icmpv6Slice.from_slice. change (s_len (mk_slice (take 8 bs))) with (len (take 8 bs)).
    rewrite len_take_le by lia. change (8 <? 8) with false. change (Icmpv6Slice.MAX_LEN <? 8) with false.
    cbv iota. cbn [bind]. unfold Icmpv6Acc.header.
    rewrite out_subU by (rewrite len_take_le; lia). reflexivity.
  - unfold Icmpv6Slice.from_slice. change (s_len (mk_slice bs)) with (len bs).
    is_true (len bs <? 8). reflexivity.
Qed.

(* ---- Icmpv4Header -------------------------------------------------------------- *)
Definition icmpv4_ts (ty code : N) : bool := ((ty =? 14) || (ty =? 13)) && (code =? 0).

Lemma icmpv4_read_form bs :
  read_outcome HIcmpv4 bs =
  if len bs <? 8 then OEof
  else match rd bs 0, rd bs 1 with
       | Some ty, Some code =>
           if icmpv4_ts ty code then (if len bs <? 20 then OEof else OOk 20) else OOk 8
       | _, _ => OBad 0
       end.
Proof.
  rewrite read_outcome_O by discriminate. unfold read_prog, icmpv4_header_read.
  rd_step.
  - is_false (len bs <? 8).
    getb bs 0 ty H0. getb bs 1 code H1. rewrite H0, H1.
    rewrite (at_some _ 0 ty) by (rewrite rd_take_lt by lia; exact H0).
    rewrite (at_some _ 1 code) by (rewrite rd_take_lt by lia; exact H1).
    unfold icmpv4_ts. destruct ((ty =? 14) || (ty =? 13)); cbn [andb]; [|reflexivity].
    destruct (code =? 0); [|reflexivity].
    rd_step.
    + is_false (len bs <? 20). rewrite O_ret. f_equal.
    + is_true (len bs <? 20). reflexivity.
  - is_true (len bs <? 8). reflexivity.
Qed.

Lemma icmpv4_slice_form bs' ty code : 8 <= len bs' -> rd bs' 0 = Some ty -> rd bs' 1 = Some code ->
  outcome_of_res (fun n => n)
    (let* r := Icmpv4Slice.from_slice (mk_slice bs') in Icmpv4Acc.header_len r) =
  if icmpv4_ts ty code then (if 20 =? len bs' then OOk 20 else OEof) else OOk 8.
Proof.
  intros L H0 H1. unfold Icmpv4Slice.from_slice, Icmpv4Acc.header_len, icmpv4_ts.
  change (s_len (mk_slice bs')) with (len bs'). is_false (len bs' <? 8).
  assert (HL : (let* t := rdU (mk_slice bs') 0 in let* c := rdU (mk_slice bs') 1 in
                Ok (if ((t =? 13) || (t =? 14)) && (0 =? c) then 20 else 8)) =
               Ok (if ((ty =? 13) || (ty =? 14)) && (code =? 0) then 20 else 8)).
  { rewrite (rdU_some (mk_slice bs') 0 ty) by exact H0.
    rewrite (rdU_some (mk_slice bs') 1 code) by exact H1. cbn [bind].
    now rewrite (N.eqb_sym 0 code). }
  rewrite (rdU_some (mk_slice bs') 0 ty) by exact H0.
  rewrite (rdU_some (mk_slice bs') 1 code) by exact H1. cbn [bind].
  rewrite (N.eqb_sym 0 code). revert HL.
  destruct (ty =? 13), (ty =? 14), (code =? 0), (20 =? len bs'); cbn [andb orb negb bind];
    intros HL; rewrite ?HL; reflexivity.
Qed.

Theorem read_eq_slice_icmpv4 bs : read_outcome HIcmpv4 bs = slice_outcome HIcmpv4 bs.
Proof.
  unfold slice_outcome, ends_with_header. rewrite icmpv4_read_form.
  destruct (len bs <? 8) eqn:E8; ltb_tac.
  { unfold Icmpv4Slice.from_slice. change (s_len (mk_slice bs)) with (len bs).
    is_true (len bs <? 8). reflexivity. }
  getb bs 0 ty H0. getb bs 1 code H1. rewrite H0, H1.
  destruct (icmpv4_ts ty code) eqn:Et.
  - destruct (len bs <? 20) eqn:E20; ltb_tac.
    + rewrite (icmpv4_slice_form bs ty code) by (try assumption; lia). rewrite Et.
      is_false (20 =? len bs). reflexivity.
    + rewrite (icmpv4_slice_form (take 20 bs) ty code)
        by (try (rewrite rd_take_lt by lia; assumption); rewrite len_take_le by lia; lia).
      rewrite Et, len_take_le by lia. reflexivity.
  - rewrite (icmpv4_slice_form (take 8 bs) ty code)
      by (try (rewrite rd_take_lt by lia; assumption); rewrite len_take_le by lia; lia).
    rewrite Et. reflexivity.
Qed.

(* ---- Ipv4Extensions ------------------------------------------------------------ *)
Theorem read_eq_slice_ipv4_exts start bs : bytes_ok bs ->
  read_outcome (HIpv4Exts start) bs = slice_outcome (HIpv4Exts start) bs.
Proof.
  intros Hb. rewrite read_outcome_O by discriminate.
  unfold slice_outcome, read_prog, x4_read, Ipv4Extensions.from_slice.
  change (IPN_AUTH =? start) with (AUTH =? start).
  destruct (AUTH =? start); [|reflexivity].
  unfold ip_auth_read, with_start, IpAuthHeaderSlice.from_slice.
  change (s_len (mk_slice bs)) with (len bs).
  rd_step.
  - is_false (len bs <? 12).
    getb bs 0 nh H0. getb bs 1 pl H1.
    rewrite (at_some _ 0 nh) by (rewrite rd_take_lt by lia; exact H0).
    rewrite (at_some _ 1 pl) by (rewrite rd_take_lt by lia; exact H1).
    rewrite (rdU_some (mk_slice bs) 1 pl) by exact H1. cbn [bind].
    assert (Hpl : pl < 256) by (eapply rd_byte; eauto).
    destruct (pl <? 1) eqn:Ep; ltb_tac; [reflexivity|].
    rd_step.
    + rewrite O_ret. is_false (len bs <? (pl + 2) * 4).
      rewrite subU_ok by (change (s_len (mk_slice bs)) with (len bs); lia).
      unfold mk_slice. cbn [bind fst snd]. rewrite s_len_sub by lia.
      rewrite idx_from_ok by (unfold s_len; cbn [snd]; lia). cbn [bind].
      unfold IpAuthHeaderSlice.next_header.
      rewrite (rdU_some _ 0 nh) by (cbn [snd]; rewrite rd_take_lt by lia; exact H0). cbn [bind].
      unfold auth_to_header. rewrite s_len_sub by lia.
      rewrite subN_ok by lia. cbn [bind].
      replace ((pl + 2) * 4 - 12) with ((pl - 1) * 4) by lia.
      is_false (1016 <? (pl - 1) * 4). rewrite N.mod_mul by lia. cbn [orb negb N.eqb].
      change (0 =? 0) with true. cbn [negb bind outcome_of_res fst olen]. rewrite s_len_sub by lia.
      f_equal. lia.
    + is_true (len bs <? (pl + 2) * 4). reflexivity.
  - is_true (len bs <? 12). reflexivity.
Qed.
