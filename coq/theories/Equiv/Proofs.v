(* Equiv/Proofs.v -- C06, groups 1b and 2: the version-dispatching IP decoders
   against the version-specific ones (three families), and
   SlicedPacket::from_ether_type(IPv4 | IPv6) against SlicedPacket::from_ip. *)
From EP Require Import Base.Bytes Parse.Types Parse.Slices Parse.Cursor Parse.View Parse.Repr
  Parse.HdrModel Parse.LaxSlices Equiv.Model.
From Coq Require Import ZArith Lia ZifyN ZifyBool.
Import SlicedPacketCursor.

Local Open Scope N_scope.

(* ---- basic facts ---------------------------------------------------------- *)
Lemma subU_len s k n h : subU s k n = Ok h -> s_len h = n.
Proof.
  unfold subU. destruct (k + n <=? s_len s) eqn:E; [|discriminate].
  intros H. injection H as <-. unfold s_len in *. cbn [snd].
  rewrite len_take, len_drop. apply N.min_l. lia.
Qed.

Lemma subU_off s k n h : subU s k n = Ok h -> s_off h = s_off s + k.
Proof.
  unfold subU. destruct (k + n <=? s_len s); [|discriminate].
  intros H. injection H as <-. reflexivity.
Qed.

Lemma same_answer_refl {A} (r : res A) : same_answer r r.
Proof. destruct r; cbn; reflexivity. Qed.

Lemma same_answer_rmap {A B} (f : A -> B) (r : res A) :
  same_answer (let* v := r in Ok (f v)) (rmap f r).
Proof. destruct r; cbn; reflexivity. Qed.

Lemma F11_false_v4 o b rest :
  F11 (b :: rest) = false -> N.shiftr b 4 =? 4 = true -> 20 <= s_len (o, b :: rest).
Proof.
  unfold F11, s_len. cbn [snd]. intros H E. rewrite E in H. cbn [andb] in H. lia.
Qed.

Lemma s_len_cons_nz o (b : N) rest : (s_len (o, b :: rest) =? 0) = false.
Proof. unfold s_len. cbn [snd]. rewrite len_cons. lia. Qed.

Lemma rdU_head o b rest : rdU (o, b :: rest) 0 = Ok b.
Proof. reflexivity. Qed.

(* ---- group 2, strict slice trio ------------------------------------------ *)
(* IpSlice::from_slice = the decoder its first nibble selects *)
Definition ip_slice_specific (s : slice) (b : N) : res ip_slice :=
  if N.shiftr b 4 =? 4 then rmap IpV4 (Ipv4Slice.from_slice s)
  else if N.shiftr b 4 =? 6 then rmap IpV6 (Ipv6Slice.from_slice s)
  else Err (EContent (CeIpUnsupportedVersion (N.shiftr b 4))).

Lemma ip_slice_dispatch o b rest :
  F11 (b :: rest) = false ->
  same_answer (IpSlice.from_slice (o, b :: rest)) (ip_slice_specific (o, b :: rest) b).
Proof.
  intros HF. set (s := (o, b :: rest)).
  unfold IpSlice.from_slice, ip_slice_specific. fold s.
  unfold s at 1. rewrite s_len_cons_nz. fold s.
  change (rdU s 0) with (@Ok N b). cbn [bind].
  destruct (N.shiftr b 4 =? 4) eqn:E4.
  - pose proof (F11_false_v4 o b rest HF E4) as L20. fold s in L20.
    unfold Ipv4Slice.from_slice, Ipv4HeaderSlice.from_slice.
    destruct (s_len s <? 20) eqn:E20; [lia|].
    change (rdU s 0) with (@Ok N b). cbn [bind]. rewrite E4. cbn [negb].
    destruct (N.land b 15 <? 5) eqn:Eihl; [cbn; reflexivity|].
    destruct (s_len s <? N.land b 15 * 4) eqn:Ehl; [cbn; reflexivity|].
    destruct (subU s 0 (N.land b 15 * 4)) as [header| |] eqn:Eh; cbn [bind rmap]; [|reflexivity|reflexivity].
    rewrite (subU_len _ _ _ _ Eh).
    destruct (Ipv4HeaderSlice.total_len header) as [tl| |]; cbn [bind rmap]; [|apply same_answer_refl|reflexivity].
    destruct (tl <? N.land b 15 * 4); [cbn; reflexivity|].
    destruct (s_len s <? tl); [cbn; reflexivity|].
    destruct (subN tl (N.land b 15 * 4)); cbn [bind rmap]; [|apply same_answer_refl|reflexivity].
    destruct (subU s (N.land b 15 * 4) a); cbn [bind rmap]; [|apply same_answer_refl|reflexivity].
    apply same_answer_rmap.
  - destruct (N.shiftr b 4 =? 6) eqn:E6; [|cbn; reflexivity].
    unfold Ipv6Slice.from_slice, Ipv6HeaderSlice.from_slice.
    destruct (s_len s <? 40) eqn:E40; [cbn; reflexivity|].
    change (rdU s 0) with (@Ok N b). cbn [bind]. rewrite E6. cbn [negb].
    destruct (subU s 0 40); cbn [bind rmap]; [|reflexivity|reflexivity].
    apply same_answer_rmap.
Qed.

(* the class is needed: inside it the two answers differ *)
Lemma ip_slice_dispatch_refuted :
  exists bs, F11 bs = true /\
    match bs with
    | b :: _ => ~ same_answer (IpSlice.from_slice (0, bs)) (ip_slice_specific (0, bs) b)
    | [] => False
    end.
Proof.
  exists [71; 0; 0; 0; 0; 0]. split; [vm_compute; reflexivity|].
  vm_compute. intros H. discriminate H.
Qed.

(* ---- group 2, struct ("headers") trio ------------------------------------- *)
Definition ip_headers_specific (s : slice) (b : N) : res (ip_headers * ip_payload) :=
  if N.shiftr b 4 =? 4 then IpHeaders.from_ipv4_slice s
  else if N.shiftr b 4 =? 6 then IpHeaders.from_ipv6_slice s
  else Err (EContent (CeIpUnsupportedVersion (N.shiftr b 4))).

Lemma idx_from_ok s k : k <= s_len s -> idx_from s k = Ok (fst s + k, drop k (snd s)).
Proof. intros H. unfold idx_from. destruct (k <=? s_len s) eqn:E; [reflexivity|lia]. Qed.

(* the rest behind a prefix, taken as a sub-slice of `&slice[k..]` or of the slice *)
Lemma subU_rest_eq s k n :
  k + n <= s_len s ->
  subU (fst s + k, drop k (snd s)) 0 n = subU s k n.
Proof.
  intros H. unfold subU, s_len in *. cbn [fst snd]. rewrite len_drop.
  destruct (0 + n <=? len (snd s) - k) eqn:E1; [|lia].
  destruct (k + n <=? len (snd s)) eqn:E2; [|lia].
  rewrite N.add_0_r. reflexivity.
Qed.

Lemma subU_all (s : slice) k : k <= s_len s -> subU s k (s_len s - k) = Ok (fst s + k, drop k (snd s)).
Proof.
  intros H. unfold subU. destruct (k + (s_len s - k) <=? s_len s) eqn:E; [|lia].
  f_equal. f_equal. unfold take. apply firstn_all2.
  pose proof (len_drop k (snd s)) as Ld. unfold s_len, len in *. lia.
Qed.

Lemma ip_headers_dispatch o b rest :
  same_answer (IpHeaders.from_slice (o, b :: rest)) (ip_headers_specific (o, b :: rest) b).
Proof.
  set (s := (o, b :: rest)).
  unfold IpHeaders.from_slice, ip_headers_specific. fold s.
  unfold s at 1. rewrite s_len_cons_nz. fold s.
  change (rd (snd s) 0) with (Some b). cbn [bind].
  destruct (N.shiftr b 4 =? 4) eqn:E4.
  - unfold IpHeaders.from_ipv4_slice, Ipv4Header.from_slice, Ipv4HeaderSlice.from_slice.
    destruct (s_len s <? 20) eqn:E20; [cbn; reflexivity|].
    change (rdU s 0) with (@Ok N b). cbn [bind]. rewrite E4. cbn [negb].
    destruct (N.land b 15 <? 5) eqn:Eihl; [cbn; reflexivity|].
    destruct (s_len s <? N.land b 15 * 4) eqn:Ehl; [cbn; reflexivity|].
    set (hl := N.land b 15 * 4) in *.
    destruct (subU s 0 hl) as [header| |] eqn:Eh; cbn [bind]; [|reflexivity|reflexivity].
    pose proof (subU_len _ _ _ _ Eh) as Lh. rewrite Lh.
    rewrite idx_from_ok by lia. cbn [bind].
    destruct (Ipv4HeaderSlice.total_len header) as [tl| |]; cbn [bind]; [|apply same_answer_refl|reflexivity].
    rewrite Lh.
    destruct (tl <? hl) eqn:Etl.
    + destruct (hl <=? tl) eqn:Etl'; [lia|]. cbn. reflexivity.
    + destruct (hl <=? tl) eqn:Etl'; [|lia].
      rewrite subN_ok by lia. cbn [bind].
      match goal with |- context [s_len ?x <? tl - hl] =>
        assert (Lr : s_len x = s_len s - hl) by (unfold s_len; cbn [snd]; now rewrite len_drop);
        rewrite Lr end.
      destruct (s_len s <? tl) eqn:Es.
      * destruct (s_len s - hl <? tl - hl) eqn:Es'; [|lia]. cbn. reflexivity.
      * destruct (s_len s - hl <? tl - hl) eqn:Es'; [lia|].
        rewrite subU_rest_eq by lia.
        destruct (subU s hl (tl - hl)); cbn [bind]; [apply same_answer_refl|apply same_answer_refl|reflexivity].
  - destruct (N.shiftr b 4 =? 6) eqn:E6; [|cbn; reflexivity].
    unfold IpHeaders.from_ipv6_slice, Ipv6Header.from_slice, Ipv6HeaderSlice.from_slice.
    destruct (s_len s <? 40) eqn:E40; [cbn; reflexivity|].
    change (rdU s 0) with (@Ok N b). cbn [bind]. rewrite E6. cbn [negb].
    destruct (subU s 0 40) as [header| |] eqn:Eh; cbn [bind]; [|reflexivity|reflexivity].
    rewrite idx_from_ok by lia. cbn [bind].
    destruct (Ipv6HeaderSlice.payload_length header) as [pl| |]; cbn [bind]; [|apply same_answer_refl|reflexivity].
    destruct ((0 =? pl) && (40 <? s_len s)) eqn:Ez.
    + rewrite subN_ok by lia. cbn [bind].
      rewrite subU_all by lia. cbn [bind]. apply same_answer_refl.
    + match goal with |- context [s_len ?x <? pl] =>
        assert (Lr : s_len x = s_len s - 40) by (unfold s_len; cbn [snd]; now rewrite len_drop);
        rewrite Lr end.
      destruct (s_len s <? 40 + pl) eqn:Es.
      * destruct (s_len s - 40 <? pl) eqn:Es'; [|lia].
        cbn. replace (pl + 40) with (40 + pl) by lia. reflexivity.
      * destruct (s_len s - 40 <? pl) eqn:Es'; [lia|].
        rewrite subU_rest_eq by lia.
        destruct (subU s 40 pl); cbn [bind]; [apply same_answer_refl|apply same_answer_refl|reflexivity].
Qed.

(* ---- group 2, lax slice trio ---------------------------------------------- *)
(* LaxIpv4Slice hands back an ip_auth::HeaderSliceError, LaxIpSlice the same
   error embedded into ipv6_exts::HeaderSliceError with Layer::IpAuthHeader *)
Definition lax_stop4 (o : option slice_error) : option stop_error :=
  match o with
  | Some (ELen l) => Some (ELen l, LyIpAuthHeader)
  | Some (EContent _) => Some (EContent CeIpv6AuthZeroPayloadLen, LyIpAuthHeader)
  | None => None
  end.

Definition lax_ip_specific (s : slice) (b : N) : res (lax_ip_slice * option stop_error) :=
  if N.shiftr b 4 =? 4 then
    rmap (fun r => (LIpV4 (fst r), lax_stop4 (snd r))) (LaxIpv4Slice.from_slice s)
  else if N.shiftr b 4 =? 6 then
    rmap (fun r => (LIpV6 (fst r), snd r)) (LaxIpv6Slice.from_slice s)
  else Err (EContent (CeIpUnsupportedVersion (N.shiftr b 4))).

Lemma lax_ip_dispatch o b rest :
  F11 (b :: rest) = false ->
  same_answer (LaxIpSlice.from_slice (o, b :: rest)) (lax_ip_specific (o, b :: rest) b).
Proof.
  intros HF. set (s := (o, b :: rest)).
  unfold LaxIpSlice.from_slice, lax_ip_specific. fold s.
  unfold s at 1. rewrite s_len_cons_nz. fold s.
  change (rdU s 0) with (@Ok N b). cbn [bind].
  destruct (N.shiftr b 4 =? 4) eqn:E4.
  - pose proof (F11_false_v4 o b rest HF E4) as L20. fold s in L20.
    unfold LaxIpv4Slice.from_slice, Ipv4HeaderSlice.from_slice.
    destruct (s_len s <? 20) eqn:E20; [lia|].
    change (rdU s 0) with (@Ok N b). cbn [bind]. rewrite E4. cbn [negb].
    destruct (N.land b 15 <? 5) eqn:Eihl; [cbn; reflexivity|].
    destruct (s_len s <? N.land b 15 * 4) eqn:Ehl; [cbn; reflexivity|].
    destruct (subU s 0 (N.land b 15 * 4)) as [header| |] eqn:Eh; cbn [bind rmap]; [|reflexivity|reflexivity].
    rewrite (subU_len _ _ _ _ Eh).
    destruct (Ipv4HeaderSlice.total_len header) as [tl| |]; cbn [bind rmap]; [|apply same_answer_refl|reflexivity].
    destruct (LaxIpv4Slice.select_payload s (N.land b 15 * 4) tl) as [[[hp src] inc]| |];
      cbn [bind rmap]; [|apply same_answer_refl|reflexivity].
    destruct (LaxIpv4Slice.finish header hp src inc) as [[v st]| |];
      cbn [bind rmap fst snd]; [|apply same_answer_refl|reflexivity].
    destruct st as [[l|c]|]; reflexivity.
  - destruct (N.shiftr b 4 =? 6) eqn:E6; [|cbn; reflexivity].
    unfold LaxIpv6Slice.from_slice, Ipv6HeaderSlice.from_slice.
    destruct (s_len s <? 40) eqn:E40; [cbn; reflexivity|].
    change (rdU s 0) with (@Ok N b). cbn [bind]. rewrite E6. cbn [negb].
    destruct (subU s 0 40) as [header| |]; cbn [bind rmap]; [|reflexivity|reflexivity].
    destruct (Ipv6HeaderSlice.payload_length header) as [pl| |]; cbn [bind rmap]; [|apply same_answer_refl|reflexivity].
    assert (Hsel :
      (if (0 =? pl) && (40 <? s_len s)
       then let* n := subN (s_len s) 40 in let* p := subU s 40 n in Ok (p, LsSlice, false)
       else let* d := subN (s_len s) 40 in
            if d <? pl
            then let* n := subN (s_len s) 40 in let* p := subU s 40 n in Ok (p, LsSlice, true)
            else let* p := subU s 40 pl in Ok (p, LsIpv6HeaderPayloadLen, false)) =
      (if (0 =? pl) && (40 <? s_len s)
       then let* n := subN (s_len s) 40 in let* p := subU s 40 n in Ok (p, LsSlice, false)
       else if s_len s <? 40 + pl
            then let* n := subN (s_len s) 40 in let* p := subU s 40 n in Ok (p, LsSlice, true)
            else let* p := subU s 40 pl in Ok (p, LsIpv6HeaderPayloadLen, false))).
    { destruct ((0 =? pl) && (40 <? s_len s)); [reflexivity|].
      rewrite subN_ok by lia. cbn [bind].
      destruct (s_len s - 40 <? pl) eqn:Ea, (s_len s <? 40 + pl) eqn:Eb; try lia; reflexivity. }
    rewrite Hsel.
    match goal with |- same_answer (bind ?t _) _ => destruct t as [[[hp src] inc]| |] end;
      cbn [bind rmap]; [|apply same_answer_refl|reflexivity].
    destruct (LaxIpv6Slice.finish header hp src inc) as [[v st]| |];
      cbn [bind rmap fst snd]; [reflexivity|apply same_answer_refl|reflexivity].
Qed.

(* ---- group 1b: SlicedPacket::from_ether_type(IPv4|IPv6) vs from_ip -------- *)
Lemma same_answer_map_len_err {A} f (r1 r2 : res A) :
  same_answer r1 r2 -> same_answer (map_len_err f r1) (map_len_err f r2).
Proof.
  destruct r1 as [a|[l1|c1]|b1], r2 as [a'|[l2|c2]|b2]; cbn; auto.
  - intros H. injection H as ->. reflexivity.
  - destruct c2; intros H; discriminate H.
  - destruct c1; intros H; discriminate H.
Qed.

Lemma same_answer_bind {A B} (r1 r2 : res A) (f g : A -> res B) :
  same_answer r1 r2 -> (forall a, same_answer (f a) (g a)) ->
  same_answer (bind r1 f) (bind r2 g).
Proof.
  destruct r1, r2; cbn; intros H K; try contradiction; auto. subst. apply K.
Qed.

Definition with_link (l : option link_slice) (p : sliced_packet) : sliced_packet :=
  mkSliced l (sp_exts p) (sp_net p) (sp_transport p).
Definition relink (l : option link_slice) (c : cursor) : cursor :=
  mkCursor (c_offset c) (c_src c) (with_link l (c_result c)).

Lemma transport_dispatch_relink l c p :
  transport_dispatch (relink l c) p = rmap (with_link l) (transport_dispatch c p).
Proof.
  unfold transport_dispatch, slice_icmp4, slice_udp, slice_tcp, slice_icmp6.
  destruct (ipp_fragmented p); [reflexivity|].
  repeat match goal with |- context [if ?c then _ else _] => destruct c end; try reflexivity.
  all: match goal with |- context [map_len_err _ ?r] => destruct r as [?|[?|?]|?] end; reflexivity.
Qed.

Lemma slice_ipv4_relink l c s :
  slice_ipv4 (relink l c) s = rmap (with_link l) (slice_ipv4 c s).
Proof.
  unfold slice_ipv4. change (c_offset (relink l c)) with (c_offset c).
  destruct (Ipv4Slice.from_slice s) as [ip|[e|e]|b]; cbn [map_len_err bind rmap]; try reflexivity.
  destruct (ptr_diff (ipp_slice (v4_payload ip)) s) as [d| |]; cbn [bind rmap]; try reflexivity.
  change (set_net (relink l c) (c_offset c + d) (ipp_src (v4_payload ip)) (NtIpv4 ip))
    with (relink l (set_net c (c_offset c + d) (ipp_src (v4_payload ip)) (NtIpv4 ip))).
  apply (transport_dispatch_relink l).
Qed.

Lemma slice_ipv6_relink l c s :
  slice_ipv6 (relink l c) s = rmap (with_link l) (slice_ipv6 c s).
Proof.
  unfold slice_ipv6. change (c_offset (relink l c)) with (c_offset c).
  destruct (Ipv6Slice.from_slice s) as [ip|[e|e]|b]; cbn [map_len_err bind rmap]; try reflexivity.
  destruct (ptr_diff (ipp_slice (v6_payload ip)) s) as [d| |]; cbn [bind rmap]; try reflexivity.
  change (set_net (relink l c) (c_offset c + d) (ipp_src (v6_payload ip)) (NtIpv6 ip))
    with (relink l (set_net c (c_offset c + d) (ipp_src (v6_payload ip)) (NtIpv6 ip))).
  apply (transport_dispatch_relink l).
Qed.

Lemma slice_ip_specific c o b rest :
  F11 (b :: rest) = false ->
  same_answer (slice_ip c (o, b :: rest))
    (if N.shiftr b 4 =? 4 then slice_ipv4 c (o, b :: rest)
     else if N.shiftr b 4 =? 6 then slice_ipv6 c (o, b :: rest)
     else Err (EContent (CeIpUnsupportedVersion (N.shiftr b 4)))).
Proof.
  intros HF. pose proof (ip_slice_dispatch o b rest HF) as D.
  set (s := (o, b :: rest)) in *. unfold ip_slice_specific in D.
  apply (same_answer_map_len_err (fun e => le_add_offset e (c_offset c))) in D.
  set (K := fun ip : ip_slice =>
    let* d := ptr_diff (ipp_slice (IpSlice.payload ip)) s in
    transport_dispatch
      (set_net c (c_offset c + d) (ipp_src (IpSlice.payload ip))
         (match ip with IpV4 v => NtIpv4 v | IpV6 v => NtIpv6 v end)) (IpSlice.payload ip)).
  change (slice_ip c s) with
    (bind (map_len_err (fun e => le_add_offset e (c_offset c)) (IpSlice.from_slice s)) K).
  destruct (N.shiftr b 4 =? 4).
  - assert (E : slice_ipv4 c s =
      bind (map_len_err (fun e => le_add_offset e (c_offset c)) (rmap IpV4 (Ipv4Slice.from_slice s))) K).
    { unfold slice_ipv4. destruct (Ipv4Slice.from_slice s) as [v|[l|cc]|bb]; reflexivity. }
    rewrite E. apply same_answer_bind; [exact D|]. intros a. apply same_answer_refl.
  - destruct (N.shiftr b 4 =? 6).
    + assert (E : slice_ipv6 c s =
        bind (map_len_err (fun e => le_add_offset e (c_offset c)) (rmap IpV6 (Ipv6Slice.from_slice s))) K).
      { unfold slice_ipv6. destruct (Ipv6Slice.from_slice s) as [v|[l|cc]|bb]; reflexivity. }
      rewrite E. apply same_answer_bind; [exact D|]. intros a. apply same_answer_refl.
    + change (Err (EContent (CeIpUnsupportedVersion (N.shiftr b 4)))) with
        (bind (map_len_err (fun e => le_add_offset e (c_offset c))
                 (@Err ip_slice (EContent (CeIpUnsupportedVersion (N.shiftr b 4))))) K).
      apply same_answer_bind; [exact D|]. intros a. apply same_answer_refl.
Qed.

Definition ep_whole (et : N) (bs : bytes) : ether_payload :=
  mkEtherPayload et LsSlice (mk_slice bs).

Lemma from_ether_type_v4 bs :
  SlicedPacket.from_ether_type ET_IPV4 bs =
  slice_ipv4 (relink (Some (LkEtherPayload (ep_whole ET_IPV4 bs))) new) (mk_slice bs).
Proof. reflexivity. Qed.

Lemma from_ether_type_v6 bs :
  SlicedPacket.from_ether_type ET_IPV6 bs =
  slice_ipv6 (relink (Some (LkEtherPayload (ep_whole ET_IPV6 bs))) new) (mk_slice bs).
Proof. reflexivity. Qed.

Lemma canon_with_link l (r1 r2 : res sliced_packet) :
  same_answer r1 r2 -> canon_vres (vres_of (rmap (with_link l) r2)) = canon_vres (vres_of r1).
Proof.
  destruct r1 as [a|e|b], r2 as [a'|e'|b']; cbn; try contradiction.
  - intros ->. reflexivity.
  - intros H. now rewrite H.
  - intros ->. reflexivity.
Qed.

Theorem ethertype_eq_ip b rest :
  F11 (b :: rest) = false ->
  (N.shiftr b 4 = 4 ->
   canon_vres (vres_of (SlicedPacket.from_ether_type ET_IPV4 (b :: rest))) =
   canon_vres (vres_of (SlicedPacket.from_ip (b :: rest)))) /\
  (N.shiftr b 4 = 6 ->
   canon_vres (vres_of (SlicedPacket.from_ether_type ET_IPV6 (b :: rest))) =
   canon_vres (vres_of (SlicedPacket.from_ip (b :: rest)))).
Proof.
  intros HF. pose proof (slice_ip_specific new 0 b rest HF) as D.
  split; intros Hv; rewrite Hv in D.
  - rewrite from_ether_type_v4, slice_ipv4_relink. apply canon_with_link. exact D.
  - rewrite from_ether_type_v6, slice_ipv6_relink. apply canon_with_link. exact D.
Qed.

(* what happens when the ether type and the version nibble disagree (or the
   data is shorter than the fixed header): the ether type's decoder rejects,
   from_ip follows the nibble *)
Theorem ethertype_mismatch bs :
  (len bs < 20 ->
   SlicedPacket.from_ether_type ET_IPV4 bs =
   Err (ELen (mkLenError 20 (len bs) LsSlice LyIpv4Header 0))) /\
  (len bs < 40 ->
   SlicedPacket.from_ether_type ET_IPV6 bs =
   Err (ELen (mkLenError 40 (len bs) LsSlice LyIpv6Header 0))) /\
  (forall b rest, bs = b :: rest -> 20 <= len bs -> N.shiftr b 4 <> 4 ->
   SlicedPacket.from_ether_type ET_IPV4 bs = Err (EContent (CeIpv4Version (N.shiftr b 4)))) /\
  (forall b rest, bs = b :: rest -> 40 <= len bs -> N.shiftr b 4 <> 6 ->
   SlicedPacket.from_ether_type ET_IPV6 bs = Err (EContent (CeIpv6Version (N.shiftr b 4)))).
Proof.
  repeat split.
  - intros H. rewrite from_ether_type_v4.
    unfold slice_ipv4, Ipv4Slice.from_slice, Ipv4HeaderSlice.from_slice.
    change (s_len (mk_slice bs)) with (len bs).
    destruct (len bs <? 20) eqn:E; [|lia]. reflexivity.
  - intros H. rewrite from_ether_type_v6.
    unfold slice_ipv6, Ipv6Slice.from_slice, Ipv6HeaderSlice.from_slice.
    change (s_len (mk_slice bs)) with (len bs).
    destruct (len bs <? 40) eqn:E; [|lia]. reflexivity.
  - intros b rest -> H Hv. rewrite from_ether_type_v4.
    unfold slice_ipv4, Ipv4Slice.from_slice, Ipv4HeaderSlice.from_slice.
    change (s_len (mk_slice (b :: rest))) with (len (b :: rest)).
    destruct (len (b :: rest) <? 20) eqn:E; [lia|].
    change (rdU (mk_slice (b :: rest)) 0) with (@Ok N b). cbn [bind].
    destruct (N.shiftr b 4 =? 4) eqn:E4; [lia|]. reflexivity.
  - intros b rest -> H Hv. rewrite from_ether_type_v6.
    unfold slice_ipv6, Ipv6Slice.from_slice, Ipv6HeaderSlice.from_slice.
    change (s_len (mk_slice (b :: rest))) with (len (b :: rest)).
    destruct (len (b :: rest) <? 40) eqn:E; [lia|].
    change (rdU (mk_slice (b :: rest)) 0) with (@Ok N b). cbn [bind].
    destruct (N.shiftr b 4 =? 6) eqn:E6; [lia|]. reflexivity.
Qed.

Lemma ethertype_eq_ip_refuted :
  exists bs, F11 bs = true /\
    canon_vres (vres_of (SlicedPacket.from_ether_type ET_IPV4 bs)) <>
    canon_vres (vres_of (SlicedPacket.from_ip bs)).
Proof.
  exists [71; 0; 0; 0; 0; 0]. split; [reflexivity|]. vm_compute. intros H. discriminate H.
Qed.
