(* The "copies agree" theorems of Equiv/Ipv6SliceLaxProofs.v for every slice value: LaxIpv6Slice::from_slice
   and Ipv6ExtensionsSlice::from_slice_lax never return Bug (nb_lax6, nb_lax_exts; no buffer, no octet
   hypothesis -- Parse/LaxWireProofs.v has this for windows of an octet buffer only). *)
From EP Require Import Parse.AccessProofs Parse.LaxSlices Parse.Ipv6SliceLax Equiv.Ipv6SliceLaxProofs.
From Coq Require Import ZArith Lia ZifyN ZifyBool List.
Import ListNotations.
Local Open Scope N_scope.

Theorem v6lax_eq_lax6_all s :
  Ipv6SliceLax.from_slice_lax s = v6lax_of_lax6 (LaxIpv6Slice.from_slice s).
Proof. apply v6lax_eq_lax6, nb_lax6. Qed.

Theorem v6lax_eq_lax_ip_arm_all o b rest :
  N.shiftr b 4 = 6 ->
  Ipv6SliceLax.from_slice_lax (o, b :: rest) = v6lax_of_lax_ip (LaxIpSlice.from_slice (o, b :: rest)).
Proof. intros N6. apply v6lax_eq_lax_ip_arm; [exact N6|now apply nb_lax_ip6]. Qed.

Theorem lax6_never_bug s nh :
  nobug (LaxIpv6Slice.from_slice s) /\ nobug (LaxIpv6Exts.from_slice_lax nh s).
Proof. split; [apply nb_lax6|apply nb_lax_exts]. Qed.
