(* Equiv/SllStart.v -- C06 group 1, `from_linux_sll` as a starting point:
   SlicedPacket::from_linux_sll and LaxPacketHeaders::from_linux_sll against the
   family's from_ether_type on the bytes behind the 16-byte SLL header.

   `sll_head bs` describes, from the bytes alone, what the SLL header at the start
   of bs is: too short, rejected (packet type > 7 / unsupported ARP hardware id),
   valid with a protocol type that is NOT an ether type (netlink, GRE, ignored,
   Linux non-standard ether type), or valid with ether type `et`.  Only in the last
   case is there a second entry point; the theorems also say what happens in the
   other three. *)
From EP Require Import Base.Bytes Parse.Types Parse.Slices Parse.Cursor Parse.View Parse.Repr
  Parse.HdrModel Parse.HdrLaxModel Equiv.Model Equiv.Proofs Equiv.ShiftProofs Equiv.HdrLaxShift.
From Coq Require Import ZArith Lia ZifyN ZifyBool.

Local Open Scope N_scope.

Inductive sll_class :=
| SllShort
| SllReject (c : content_error)
| SllOther (pt : sll_protocol_type)
| SllEther (et : N).

Definition sll_head (bs : bytes) : sll_class :=
  if len bs <? 16 then SllShort
  else
    match rd bs 0, rd bs 1, rd bs 2, rd bs 3, rd bs 14, rd bs 15 with
    | Some p0, Some p1, Some h0, Some h1, Some e0, Some e1 =>
        if be16 p0 p1 <=? 7 then
          match LinuxSll.protocol_type_try_from (be16 h0 h1) (be16 e0 e1) with
          | Ok (SllEtherType et) => SllEther et
          | Ok pt => SllOther pt
          | Err (EContent c) => SllReject c
          | _ => SllShort
          end
        else SllReject (CeLinuxSllPacketType (be16 p0 p1))
    | _, _, _, _, _, _ => SllShort
    end.

Lemma long16 (bs : bytes) : 16 <= len bs ->
  exists b0 b1 b2 b3 b4 b5 b6 b7 b8 b9 b10 b11 b12 b13 b14 b15 t,
    bs = b0 :: b1 :: b2 :: b3 :: b4 :: b5 :: b6 :: b7 :: b8 :: b9 :: b10 :: b11 :: b12 :: b13 :: b14 :: b15 :: t.
Proof.
  intros H. unfold len in H.
  do 16 (destruct bs as [|? bs]; [cbn [length] in H; lia|]).
  repeat eexists.
Qed.

(* LinuxSllHeaderSlice::from_slice on exactly the 16 header bytes, at any pointer *)
Lemma sll_header_16 o b0 b1 b2 b3 b4 b5 b6 b7 b8 b9 b10 b11 b12 b13 b14 b15 :
  LinuxSll.header_from_slice (o, [b0; b1; b2; b3; b4; b5; b6; b7; b8; b9; b10; b11; b12; b13; b14; b15]) =
  (let* _ := LinuxSll.packet_type_try_from (be16 b0 b1) in
   let* _ := LinuxSll.protocol_type_try_from (be16 b2 b3) (be16 b14 b15) in
   Ok (o + 0, [b0; b1; b2; b3; b4; b5; b6; b7; b8; b9; b10; b11; b12; b13; b14; b15])).
Proof. reflexivity. Qed.

Lemma sll_ptype_16 o b0 b1 b2 b3 b4 b5 b6 b7 b8 b9 b10 b11 b12 b13 b14 b15 :
  LinuxSll.protocol_type (o, [b0; b1; b2; b3; b4; b5; b6; b7; b8; b9; b10; b11; b12; b13; b14; b15]) =
  match LinuxSll.protocol_type_try_from (be16 b2 b3) (be16 b14 b15) with
  | Ok v => Ok v
  | _ => Bug SITE_UNWRAP
  end.
Proof. reflexivity. Qed.

Lemma sll_pkttype_16 o b0 b1 b2 b3 b4 b5 b6 b7 b8 b9 b10 b11 b12 b13 b14 b15 :
  LinuxSll.packet_type (o, [b0; b1; b2; b3; b4; b5; b6; b7; b8; b9; b10; b11; b12; b13; b14; b15]) =
  match LinuxSll.packet_type_try_from (be16 b0 b1) with
  | Ok v => Ok v
  | _ => Bug SITE_UNWRAP
  end.
Proof. reflexivity. Qed.

Lemma try_from_shape hw proto :
  match LinuxSll.protocol_type_try_from hw proto with
  | Ok _ | Err (EContent _) => True
  | _ => False
  end.
Proof.
  unfold LinuxSll.protocol_type_try_from.
  repeat match goal with |- context [if ?c then _ else _] => destruct c end; exact I.
Qed.

(* ---- SlicedPacket ---------------------------------------------------------------------- *)
Import SlicedPacketCursor.

Theorem sll_start_sliced bs :
  match sll_head bs with
  | SllShort =>
      SlicedPacket.from_linux_sll bs = Err (ELen (mkLenError 16 (len bs) LsSlice LyLinuxSllHeader 0))
  | SllReject c => SlicedPacket.from_linux_sll bs = Err (EContent c)
  | SllOther pt =>
      SlicedPacket.from_linux_sll bs =
      Ok (mkSliced (Some (LkLinuxSll (0, take 16 bs) (0, bs))) [] None None)
  | SllEther et =>
      nolink (vres_of (SlicedPacket.from_linux_sll bs)) =
      shift_vres 16 (nolink (vres_of (SlicedPacket.from_ether_type et (drop 16 bs))))
  end.
Proof.
  unfold sll_head, SlicedPacket.from_linux_sll, slice_linux_sll, LinuxSll.from_slice.
  change (s_len (mk_slice bs)) with (len bs).
  destruct (len bs <? 16) eqn:E; [reflexivity|].
  destruct (16 <=? len bs) eqn:E'; [|lia].
  assert (PL : LinuxSll.payload_slice (mk_slice bs) = Ok (sh 16 (mk_slice (drop 16 bs)))).
  { unfold LinuxSll.payload_slice. change (s_len (mk_slice bs)) with (len bs).
    rewrite subN_ok by lia. cbn [bind]. rewrite subU_all by (change (s_len (mk_slice bs)) with (len bs); lia).
    reflexivity. }
  revert PL.
  destruct (long16 bs ltac:(lia)) as (b0 & b1 & b2 & b3 & b4 & b5 & b6 & b7 & b8 & b9 & b10 & b11 & b12 & b13
                                       & b14 & b15 & t & ->).
  intros PL.
  change (rd _ 0) with (Some b0). change (rd _ 1) with (Some b1). change (rd _ 2) with (Some b2).
  change (rd _ 3) with (Some b3). change (rd _ 14) with (Some b14). change (rd _ 15) with (Some b15).
  cbv iota. cbn [bind].
  match goal with |- context [LinuxSll.header_from_slice ?h] =>
    change (LinuxSll.header_from_slice h)
      with (LinuxSll.header_from_slice (0, [b0; b1; b2; b3; b4; b5; b6; b7; b8; b9; b10; b11; b12; b13; b14; b15]))
  end.
  rewrite sll_header_16. unfold LinuxSll.packet_type_try_from.
  destruct (be16 b0 b1 <=? 7); [|reflexivity]. cbn [bind].
  pose proof (try_from_shape (be16 b2 b3) (be16 b14 b15)) as SH.
  destruct (LinuxSll.protocol_type_try_from (be16 b2 b3) (be16 b14 b15)) as [pt|[?|c]|?] eqn:TF;
    try contradiction; [|reflexivity].
  cbn [bind map_len_err]. rewrite sll_ptype_16, TF. cbn [bind]. rewrite PL. cbn [bind].
  destruct pt as [v|v|v|et|v]; try reflexivity.
  unfold SlicedPacket.from_ether_type, slice_ether_type.
  rewrite <- (mv_view 16 (fun _ => Some (LkLinuxSll (0 + 0, [b0; b1; b2; b3; b4; b5; b6; b7; b8; b9; b10; b11; b12;
                                                              b13; b14; b15]) (mk_slice (b0 :: b1 :: b2 :: b3
            :: b4 :: b5 :: b6 :: b7 :: b8 :: b9 :: b10 :: b11 :: b12 :: b13 :: b14 :: b15 :: t))))).
  f_equal. f_equal.
  exact (loop_mv 16 16 _ 5 (set_link new 0 (LkEtherPayload _)) (mkEtherPayload et LsSlice (mk_slice (drop 16 _)))).
Qed.

(* ---- LaxPacketHeaders -------------------------------------------------------------------- *)
Theorem sll_start_laxheaders bs :
  match sll_head bs with
  | SllShort =>
      LaxPacketHeaders.from_linux_sll bs = Err (ELen (mkLenError 16 (len bs) LsSlice LyLinuxSllHeader 0))
  | SllReject c => LaxPacketHeaders.from_linux_sll bs = Err (EContent c)
  | SllOther pt =>
      LaxPacketHeaders.from_linux_sll bs =
      Ok (mkLH (Some (HlLinuxSll (0, take 16 bs))) [] None None (LHpLinuxSll pt (16, drop 16 bs)) None)
  | SllEther et =>
      LaxPacketHeaders.from_linux_sll bs =
      lh_behind 16 (HlLinuxSll (0, take 16 bs)) (LaxPacketHeaders.from_ether_type et (drop 16 bs))
  end.
Proof.
  unfold sll_head, LaxPacketHeaders.from_linux_sll, LaxPacketHeaders.linux_sll_header_from_slice,
    LinuxSll.header_from_slice.
  change (s_len (mk_slice bs)) with (len bs).
  destruct (len bs <? 16) eqn:E; [reflexivity|].
  assert (IX : idx_from (mk_slice bs) 16 = Ok (sh 16 (mk_slice (drop 16 bs)))).
  { rewrite idx_from_ok by (change (s_len (mk_slice bs)) with (len bs); lia). reflexivity. }
  assert (SU : subU (mk_slice bs) 0 16 = Ok (0 + 0, take 16 bs)).
  { unfold subU. change (s_len (mk_slice bs)) with (len bs).
    destruct (0 + 16 <=? len bs) eqn:E2; [reflexivity|lia]. }
  rewrite SU. revert IX. clear SU.
  destruct (long16 bs ltac:(lia)) as (b0 & b1 & b2 & b3 & b4 & b5 & b6 & b7 & b8 & b9 & b10 & b11 & b12 & b13
                                       & b14 & b15 & t & ->).
  intros IX.
  change (rd _ 0) with (Some b0). change (rd _ 1) with (Some b1). change (rd _ 2) with (Some b2).
  change (rd _ 3) with (Some b3). change (rd _ 14) with (Some b14). change (rd _ 15) with (Some b15).
  cbv iota.
  change (rd16 (mk_slice _) 0) with (@Ok N (be16 b0 b1)).
  change (rd16 (mk_slice _) 2) with (@Ok N (be16 b2 b3)).
  change (rd16 (mk_slice _) 14) with (@Ok N (be16 b14 b15)). cbn [bind].
  unfold LinuxSll.packet_type_try_from.
  destruct (be16 b0 b1 <=? 7) eqn:PT; [|reflexivity]. cbn [bind].
  pose proof (try_from_shape (be16 b2 b3) (be16 b14 b15)) as SH.
  destruct (LinuxSll.protocol_type_try_from (be16 b2 b3) (be16 b14 b15)) as [pt|[?|c]|?] eqn:TF;
    try contradiction; [|reflexivity].
  cbn [bind].
  change (take 16 (b0 :: _)) with [b0; b1; b2; b3; b4; b5; b6; b7; b8; b9; b10; b11; b12; b13; b14; b15].
  rewrite sll_pkttype_16, sll_ptype_16, TF. unfold LinuxSll.packet_type_try_from. rewrite PT. cbn [bind].
  rewrite IX. cbn [bind].
  destruct pt as [v|v|v|et|v]; try reflexivity.
  unfold LaxPacketHeaders.from_ether_type. rewrite lh_from_ether_type_slice_sh.
  destruct (LaxPacketHeaders.from_ether_type_slice et _) as [r|[e|c]|bg]; cbn [rmap bind lh_behind];
    try reflexivity.
  now rewrite with_link_shift_stop, shift_stop_spec.
Qed.

(* a 16-byte SLL header with the given packet type, ARPHRD type and protocol *)
Definition sll_hdr (pt hw proto : N) : bytes :=
  [pt / 256; pt mod 256; hw / 256; hw mod 256; 0; 6; 1; 2; 3; 4; 5; 6; 0; 0; proto / 256; proto mod 256].
