(* Equiv/ReadValues6.v -- C06 group 3, header VALUE of Ipv6Header: the field-level
   decode models of C15 (BitFields/Model.v: Ipv6Header::read decodes the fields by
   hand from its 1 + 39 byte buffers, Ipv6Header::from_slice goes through
   Ipv6HeaderSlice::to_header) return the same struct. *)
From EP Require Import Base.Bytes BitFields.Model Equiv.Settle.
From Coq Require Import ZArith Lia ZifyN ZifyBool.

Local Open Scope N_scope.

Definition eof_of_len6 {A} (r : res A) : res A :=
  match r with Fail ErrLen => Fail ErrIo | r => r end.

Lemma shl8_low b : b < 256 -> shl8 (N.land b 15) 4 = shl8 b 4.
Proof.
  intros Hb. apply N.eqb_eq.
  exact (sweep256 (fun b => shl8 (N.land b 15) 4 =? shl8 b 4) ltac:(vm_compute; reflexivity) b Hb).
Qed.

Lemma split40 (bs : bytes) : 40 <= len bs -> exists pre t, bs = pre ++ t /\ length pre = 40%nat.
Proof.
  intros H. exists (firstn 40 bs), (skipn 40 bs). split; [symmetry; apply firstn_skipn|].
  rewrite firstn_length. unfold len in H. lia.
Qed.

(* with the 40 fixed bytes present (shorter inputs: C06_read_cut_fixed_inside) *)
Theorem ip6_read_eq_from_slice bs : bytes_ok bs -> 40 <= len bs ->
  Ipv6Header_read bs = eof_of_len6 (Ipv6Header_from_slice bs).
Proof.
  intros Hb E.
  destruct (split40 bs E) as (pre & t & -> & Hpre).
  do 40 (destruct pre as [|? pre]; [discriminate Hpre|]). destruct pre; [|discriminate Hpre]. clear Hpre.
  assert (Hb0 : n < 256).
  { apply bytes_ok_app in Hb. destruct Hb as [Hb _]. apply bytes_ok_cons in Hb. exact (proj1 Hb). }
  unfold Ipv6Header_from_slice, Ipv6HeaderSlice_from_slice.
  replace (len _ <? 40) with false by (symmetry; apply N.ltb_ge; exact E).
  cbn [app Ipv6Header_read].
  unfold Ipv6Header_read_without_version.
  match goal with |- context [len ?l <? 39] => replace (len l <? 39) with false end.
  2:{ symmetry. apply N.ltb_ge. rewrite !len_cons. lia. }
  unfold V6S_to_header, V6S_traffic_class, V6S_flow_label, V6S_payload_length, V6S_next_header,
    V6S_hop_limit, V6S_source, V6S_destination, getu, getu_n.
  unfold take, drop, rd.
  change (N.to_nat 0) with 0%nat. change (N.to_nat 1) with 1%nat. change (N.to_nat 2) with 2%nat.
  change (N.to_nat 3) with 3%nat. change (N.to_nat 4) with 4%nat. change (N.to_nat 5) with 5%nat.
  change (N.to_nat 6) with 6%nat. change (N.to_nat 7) with 7%nat. change (N.to_nat 8) with 8%nat.
  change (N.to_nat 16) with 16%nat. change (N.to_nat 23) with 23%nat. change (N.to_nat 24) with 24%nat.
  change (N.to_nat 39) with 39%nat. change (N.to_nat 40) with 40%nat.
  cbn [firstn skipn nth_error bind].
  destruct (negb (N.shiftr n 4 =? 6)); [reflexivity|]. cbn [bind eof_of_len6].
  rewrite shl8_low by exact Hb0.
  unfold Ipv6FlowLabel_new_unchecked.
  destruct (be32 0 (N.land n0 15) n1 n2 <=? Ipv6FlowLabel_MAX_U32); cbn [bind]; [|reflexivity].
  unfold len. cbn [length]. reflexivity.
Qed.
