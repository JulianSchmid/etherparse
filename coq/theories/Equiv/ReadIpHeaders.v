(* Equiv/ReadIpHeaders.v -- C06 group 3: IpHeaders::read (first byte, the rest of
   the fixed header, then the extension headers through a LimitedReader bounded by
   total_len / payload_length) against IpHeaders::from_slice. *)
From EP Require Import Base.Bytes Base.Lists Parse.Types Parse.Slices Parse.Repr Parse.HdrModel
  IoFault.Model Equiv.ModelRead Equiv.Proofs Equiv.ReadProofs Equiv.ReadBase Equiv.ReadSimple
  Equiv.ReadChain.
From Coq Require Import ZArith Lia ZifyN ZifyBool.

Local Open Scope N_scope.

(* "the slice holds the announced packet" fails: the fixed header is complete and
   announces (IPv4 total_len, IPv6 40 + payload_length) more bytes than the slice
   has.  from_slice then answers Len(.., Slice, Ipv4Packet / Ipv6Packet); the
   reader never looks at the payload. *)
Definition announced_missing (bs : bytes) : bool :=
  match rd bs 0 with
  | Some b0 =>
      if N.shiftr b0 4 =? 4 then
        (20 <=? len bs) &&
        match rd bs 2, rd bs 3 with Some a, Some b => len bs <? be16 a b | _, _ => false end
      else if N.shiftr b0 4 =? 6 then
        (40 <=? len bs) &&
        match rd bs 4, rd bs 5 with Some a, Some b => len bs <? 40 + be16 a b | _, _ => false end
      else false
  | None => false
  end.

Lemma O_limit mx ls off layer k d p :
  O (PLimit mx ls off layer k) (mk_st d p MPlain) = O k (mk_st d p (MLim (lr_new mx ls off layer))).
Proof. reflexivity. Qed.

Lemma hdr_rd (bs : bytes) n i v : i < n -> rd bs i = Some v ->
  rd (snd (0 + 0, take n (drop 0 bs))) i = Some v.
Proof. intros H E. cbn [snd]. rewrite drop_0. rewrite rd_take_lt by exact H. exact E. Qed.

Lemma frag_flag_ok x : x_inv x -> exists b, Ipv6Extensions.is_fragmenting_payload x = Ok b.
Proof.
  intros [_ H]. unfold Ipv6Extensions.is_fragmenting_payload.
  destruct (x_frag x) as [f|] eqn:E; [|eauto].
  specialize (H f eq_refl).
  unfold Ipv6FragmentHeaderSlice.is_fragmenting_payload, Ipv6FragmentHeaderSlice.more_fragments,
    Ipv6FragmentHeaderSlice.fragment_offset.
  destruct (rd_lt_Some (snd f) 3) as [b3 H3]; [unfold s_len in H; lia|].
  destruct (rd_lt_Some (snd f) 2) as [b2 H2]; [unfold s_len in H; lia|].
  rewrite (rdU_some f 3 b3) by exact H3. rewrite (rdU_some f 2 b2) by exact H2.
  cbn [bind]. eauto.
Qed.

(* ---- version 4 ------------------------------------------------------------------- *)
Lemma ip_headers_v4 bs b0 :
  bytes_ok bs -> rd bs 0 = Some b0 -> N.shiftr b0 4 =? 4 = true ->
  cut_fixed HIpHeaders bs = false -> announced_missing bs = false ->
  same_reason (read_outcome HIpHeaders bs) (slice_outcome HIpHeaders bs).
Proof.
  intros Hb H0 Hv Hc Ha.
  assert (L1 : 1 <= len bs) by (apply rd_Some_lt in H0; lia).
  rewrite read_outcome_O by discriminate.
  unfold slice_outcome, read_prog, ip_headers_read, IpHeaders.from_slice.
  change (s_len (mk_slice bs)) with (len bs).
  is_false (len bs =? 0). cbn [mk_slice snd]. rewrite H0. cbn [bind]. rewrite Hv.
  change (0, bs) with (mk_slice bs).
  rd_step; [|lia].
  rewrite (at_some _ 0 b0) by (rewrite rd_take_lt by lia; exact H0).
  rewrite <- shr4_div. destruct (N.shiftr b0 4 =? 4) eqn:Hv'; [|ltb_tac; congruence].
  rewrite <- land15_mod.
  rewrite (rdU_some (mk_slice bs) 0 b0) by exact H0. cbn [bind].
  (* the cut-short class and the announced length *)
  assert (Hc' : (len bs <? 20) && (N.land b0 15 <? 5) = false).
  { destruct bs as [|a r]; [discriminate|]. unfold rd in H0. cbn in H0. injection H0 as ->.
    cbn [cut_fixed] in Hc. rewrite Hv in Hc. rewrite andb_true_r in Hc. exact Hc. }
  unfold announced_missing in Ha. rewrite H0, Hv in Ha.
  destruct (len bs <? 20) eqn:E20; ltb_tac.
  { cbn [andb] in Hc'. destruct (N.land b0 15 <? 5) eqn:Ei; [discriminate Hc'|]. ltb_tac.
    rd_step; [lia|]. apply same_reason_eq; [reflexivity|discriminate]. }
  destruct (N.land b0 15 <? 5) eqn:Ei; ltb_tac.
  { apply same_reason_eq; [reflexivity|discriminate]. }
  set (hl := N.land b0 15 * 4) in *.
  rd_step.
  2:{ is_true (len bs <? hl). apply same_reason_eq; [reflexivity|discriminate]. }
  is_false (len bs <? hl).
  getb bs 2 t0 H2. getb bs 3 t1 H3. getb bs 9 pr H9. getb bs 6 b6 H6. getb bs 7 b7 H7.
  rewrite (at_some _ 1 t0) by (rewrite rd_take_lt by lia; rewrite rd_drop; exact H2).
  rewrite (at_some _ 2 t1) by (rewrite rd_take_lt by lia; rewrite rd_drop; exact H3).
  rewrite (at_some _ 8 pr) by (rewrite rd_take_lt by lia; rewrite rd_drop; exact H9).
  rewrite subU_ok by (change (s_len (mk_slice bs)) with (len bs); lia).
  unfold mk_slice at 1. cbn [bind fst].
  unfold Ipv4HeaderSlice.total_len.
  rewrite (rd16_some _ 2 t0 t1) by (apply hdr_rd; [lia|assumption]). cbn [bind].
  change (t0 * 256 + t1) with (be16 t0 t1).
  assert (Ha' : len bs <? be16 t0 t1 = false).
  { rewrite H2, H3 in Ha. destruct (20 <=? len bs) eqn:EE; [exact Ha|ltb_tac; lia]. }
  clear Ha. ltb_tac.
  destruct (be16 t0 t1 <? hl) eqn:Et; ltb_tac.
  { apply same_reason_eq; [reflexivity|discriminate]. }
  is_false (len bs <? be16 t0 t1).
  rewrite subN_ok by lia. cbn [bind].
  rewrite subU_ok by (change (s_len (mk_slice bs)) with (len bs); lia). cbn [bind mk_slice fst snd].
  set (n := be16 t0 t1 - hl) in *.
  rewrite drop_drop. replace (0 + 1 + (hl - 1)) with hl by lia. replace (1 + (hl - 1)) with hl by lia.
  rewrite O_limit. unfold lr_new.
  unfold IpHeaders.v4_exts, Ipv4HeaderSlice.protocol.
  rewrite (rdU_some _ 9 pr) by (apply hdr_rd; [lia|assumption]). cbn [bind].
  unfold Ipv4HeaderSlice.is_fragmenting_payload, Ipv4HeaderSlice.more_fragments,
    Ipv4HeaderSlice.fragments_offset.
  rewrite (rdU_some _ 6 b6) by (apply hdr_rd; [lia|assumption]).
  rewrite (rdU_some _ 7 b7) by (apply hdr_rd; [lia|assumption]). cbn [bind].
  unfold x4_read, Ipv4Extensions.from_slice. change IPN_AUTH with AUTH.
  destruct (AUTH =? pr).
  2:{ cbn [bind outcome_of_res snd ipp_slice]. rewrite O_ret. cbn. lia. }
  set (r := mk_limrd n LS_IPV4_TOTAL L_IPV4H hl 0).
  set (d := drop hl bs).
  assert (Hok : m_ok d (MLim r)).
  { cbn [m_ok r lr_read lr_max]. unfold d. rewrite len_drop. lia. }
  rewrite (auth_read_form d hl (MLim r)) by exact Hok.
  cbn [avail r lr_max lr_read fail_out lr_source lr_off]. rewrite N.sub_0_r.
  unfold IpAuthHeaderSlice.from_slice.
  assert (Hld : len d = len bs - hl) by (unfold d; apply len_drop).
  assert (Hsl : s_len (0 + hl, take n d) = n).
  { unfold s_len. cbn [snd]. rewrite len_take_le; [reflexivity|]. lia. }
  rewrite Hsl. rewrite (len_sub_take (0 + 0) (drop 0 bs) hl) by (rewrite drop_0; lia).
  destruct (n <? 12) eqn:E12; ltb_tac.
  { cbn. repeat split; try lia. }
  destruct (rd_lt_Some d 0) as [nh Hn0]; [lia|].
  destruct (rd_lt_Some d 1) as [pl Hn1]; [lia|].
  rewrite Hn0, Hn1.
  assert (Hpl : pl < 256).
  { eapply rd_byte; [|exact Hn1]. unfold d. now apply bytes_ok_drop. }
  rewrite (rdU_some _ 1 pl) by (cbn [snd]; rewrite rd_take_lt by lia; exact Hn1). cbn [bind].
  destruct (pl <? 1) eqn:Ep; ltb_tac.
  { cbn. reflexivity. }
  destruct (n <? (pl + 2) * 4) eqn:El; ltb_tac.
  { cbn. repeat split; try lia. }
  rewrite subU_ok by (rewrite Hsl; lia). cbn [bind fst snd]. rewrite drop_0.
  rewrite (len_sub_take (0 + hl + 0) (take n d) ((pl + 2) * 4))
    by (rewrite len_take_le; lia).
  rewrite idx_from_ok by (rewrite Hsl; lia). cbn [bind fst snd].
  unfold IpAuthHeaderSlice.next_header.
  rewrite (rdU_some _ 0 nh) by (cbn [snd]; rewrite !rd_take_lt by lia; exact Hn0). cbn [bind].
  rewrite auth_to_header_ok by (try lia; rewrite len_take_le; lia).
  cbn [bind outcome_of_res snd ipp_slice]. rewrite O_ret. cbn. lia.
Qed.

(* ---- version 6 ------------------------------------------------------------------- *)
Lemma ip_headers_v6 bs b0 :
  bytes_ok bs -> rd bs 0 = Some b0 -> N.shiftr b0 4 =? 6 = true ->
  announced_missing bs = false -> F15 bs = false ->
  same_reason (read_outcome HIpHeaders bs) (slice_outcome HIpHeaders bs).
Proof.
  intros Hb H0 Hv Ha HF.
  assert (L1 : 1 <= len bs) by (apply rd_Some_lt in H0; lia).
  assert (Hv4 : N.shiftr b0 4 =? 4 = false).
  { apply N.eqb_eq in Hv. apply N.eqb_neq. lia. }
  rewrite read_outcome_O by discriminate.
  unfold slice_outcome, read_prog, ip_headers_read, IpHeaders.from_slice.
  change (s_len (mk_slice bs)) with (len bs).
  is_false (len bs =? 0). cbn [mk_slice snd]. rewrite H0. cbn [bind]. rewrite Hv4, Hv.
  change (0, bs) with (mk_slice bs).
  unfold announced_missing in Ha. rewrite H0, Hv4, Hv in Ha.
  rd_step; [|lia].
  rewrite (at_some _ 0 b0) by (rewrite rd_take_lt by lia; exact H0).
  rewrite <- shr4_div.
  destruct (N.shiftr b0 4 =? 4) eqn:X4; [ltb_tac; congruence|].
  destruct (N.shiftr b0 4 =? 6) eqn:X6; [|ltb_tac; congruence].
  unfold ipv6_read_without_version.
  rd_step.
  2:{ is_true (len bs <? 40). apply same_reason_eq; [reflexivity|discriminate]. }
  is_false (len bs <? 40).
  getb bs 4 p0 H4. getb bs 5 p1 H5. getb bs 6 nh H6. getb bs 3 b3 H3. getb bs 2 b2 H2.
  rewrite (at_some _ 3 p0) by (rewrite rd_take_lt by lia; rewrite rd_drop; exact H4).
  rewrite (at_some _ 4 p1) by (rewrite rd_take_lt by lia; rewrite rd_drop; exact H5).
  rewrite (at_some _ 5 nh) by (rewrite rd_take_lt by lia; rewrite rd_drop; exact H6).
  change (p0 * 256 + p1) with (be16 p0 p1).
  assert (Ha' : len bs <? 40 + be16 p0 p1 = false).
  { rewrite H4, H5 in Ha. destruct (40 <=? len bs) eqn:EE; [exact Ha|ltb_tac; lia]. }
  clear Ha. ltb_tac.
  rewrite drop_drop. change (1 + 39) with 40. change (0 + 1 + 39) with 40.
  rewrite O_limit. unfold lr_new.
  rewrite subU_ok by (change (s_len (mk_slice bs)) with (len bs); lia).
  unfold mk_slice at 1. cbn [bind fst].
  unfold Ipv6HeaderSlice.payload_length.
  rewrite (rd16_some _ 4 p0 p1) by (apply hdr_rd; [lia|assumption]). cbn [bind].
  set (pl := be16 p0 p1) in *.
  destruct ((0 =? pl) && (40 <? len bs)) eqn:Ez.
  - (* payload length 0 read as "up to the end of the slice": outside F15 no extension header follows *)
    apply andb_prop in Ez. destruct Ez as [Ez1 Ez2]. ltb_tac.
    assert (Hp : p0 = 0 /\ p1 = 0) by (unfold pl, be16 in Ez1; lia). destruct Hp as [-> ->].
    rewrite (F15_rd bs b0 0 0 nh H0 H4 H5 H6) in HF. rewrite Hv in HF.
    change (0 =? 0) with true in HF. cbn [andb] in HF.
    apply orb_false_elim in HF. destruct HF as [HF E60].
    apply orb_false_elim in HF. destruct HF as [HF E51].
    apply orb_false_elim in HF. destruct HF as [HF E44].
    apply orb_false_elim in HF. destruct HF as [E0 E43].
    rewrite subN_ok by lia. cbn [bind].
    rewrite subU_ok by (change (s_len (mk_slice bs)) with (len bs); lia). cbn [bind mk_slice fst snd].
    unfold IpHeaders.v6_exts, Ipv6HeaderSlice.next_header.
    rewrite (rdU_some _ 6 nh) by (apply hdr_rd; [lia|assumption]). cbn [bind].
    unfold Ipv6Extensions.from_slice, x6_read.
    change IPV6_HOP_BY_HOP with 0. change IPN_HOP_BY_HOP with 0.
    rewrite (N.eqb_sym 0 nh), E0. cbn [bind].
    unfold X6_READ_FUEL. change 7%nat with (S 6). generalize 6%nat. intros fr.
    cbn [x6_read_loop Ipv6Extensions.loop].
    change IPV6_HOP_BY_HOP with 0. change IPN_HOP_BY_HOP with 0.
    change IPV6_DEST_OPTIONS with 60. change IPN_DEST_OPTIONS with 60.
    change IPV6_ROUTE with 43. change IPN_ROUTE with 43.
    change IPV6_FRAG with 44. change IPN_FRAG with 44.
    change AUTH with 51. change IPN_AUTH with 51.
    rewrite E0, E60, E43, E44, E51.
    cbn [bind Ipv6Extensions.is_fragmenting_payload x_frag exts6_empty outcome_of_res snd ipp_slice].
    rewrite O_ret. cbn. reflexivity.
  - (* the payload is bounded by the length field *)
    is_false (len bs <? 40 + pl).
    rewrite subU_ok by (change (s_len (mk_slice bs)) with (len bs); lia). cbn [bind mk_slice fst snd].
    unfold IpHeaders.v6_exts, Ipv6HeaderSlice.next_header.
    rewrite (rdU_some _ 6 nh) by (apply hdr_rd; [lia|assumption]). cbn [bind].
    set (r := mk_limrd pl LS_IPV6_PAYLOAD L_IPV6H 40 0).
    set (d := drop 40 bs).
    set (hp := (0 + 40, take pl d)).
    assert (Hld : len d = len bs - 40) by (unfold d; apply len_drop).
    assert (R : rel (MLim r) d hp hp).
    { split.
      - unfold d. now apply bytes_ok_drop.
      - cbn [m_ok r lr_read lr_max]. lia.
      - cbn [hp snd avail r lr_max lr_read]. now rewrite N.sub_0_r.
      - lia.
      - cbn [lim_inv r lr_source lr_off lr_read]. split; [reflexivity|lia]. }
    pose proof (x6_rel (MLim r) d 40 hp nh R) as P. cbn [lim_of] in P. unfold post in P.
    destruct (Ipv6Extensions.from_slice nh hp) as [[[x' nh'] rest']|e|b].
    + destruct P as (P1 & P2 & P3 & P4). destruct (frag_flag_ok x' P2) as [fl Hfl].
      cbn [bind]. rewrite Hfl. cbn [bind outcome_of_res snd ipp_slice]. rewrite P1.
      cbn [same_reason]. cbn [hp s_off fst] in *. lia.
    + destruct e as [l|c]; cbn [bind outcome_of_res wrap6] in *; exact P.
    + elim P.
Qed.

(* ---- IpHeaders ------------------------------------------------------------------- *)
Theorem read_eq_slice_ip_headers bs : bytes_ok bs ->
  cut_fixed HIpHeaders bs = false -> announced_missing bs = false -> F15 bs = false ->
  same_reason (read_outcome HIpHeaders bs) (slice_outcome HIpHeaders bs).
Proof.
  intros Hb Hc Ha HF.
  destruct (rd bs 0) as [b0|] eqn:H0.
  - destruct (N.shiftr b0 4 =? 4) eqn:E4; [eapply ip_headers_v4; eauto|].
    destruct (N.shiftr b0 4 =? 6) eqn:E6; [eapply ip_headers_v6; eauto|].
    assert (L1 : 1 <= len bs) by (apply rd_Some_lt in H0; lia).
    rewrite read_outcome_O by discriminate.
    unfold slice_outcome, read_prog, ip_headers_read, IpHeaders.from_slice.
    change (s_len (mk_slice bs)) with (len bs).
    is_false (len bs =? 0). cbn [mk_slice snd]. rewrite H0. cbn [bind]. rewrite E4, E6.
    rd_step; [|lia].
    rewrite (at_some _ 0 b0) by (rewrite rd_take_lt by lia; exact H0).
    rewrite <- shr4_div.
    destruct (N.shiftr b0 4 =? 4) eqn:X4; [ltb_tac; congruence|].
    destruct (N.shiftr b0 4 =? 6) eqn:X6; [ltb_tac; congruence|].
    apply same_reason_eq; [reflexivity|discriminate].
  - assert (L0 : len bs = 0).
    { destruct bs; [reflexivity|discriminate]. }
    rewrite read_outcome_O by discriminate.
    unfold slice_outcome, read_prog, ip_headers_read, IpHeaders.from_slice.
    change (s_len (mk_slice bs)) with (len bs).
    is_true (len bs =? 0). rd_step; [lia|]. apply same_reason_eq; [reflexivity|discriminate].
Qed.
