(* Equiv/LaxIpCopies.v -- C06 group 2, the lax struct trio: the version-dispatching
   IpHeaders::from_slice_lax (Parse/HdrLaxModel.v) against the version-specific copies
   IpHeaders::from_ipv4_slice_lax / from_ipv6_slice_lax (Equiv/ModelLaxIp.v).
   Plain equality, every non-empty byte string, NO exclusion: the dispatching copy checks
   the 20 fixed bytes before it looks at the IHL (the F11 order difference is between the
   slice trios IpSlice / LaxIpSlice and their siblings, not here). *)
From EP Require Import Base.Bytes Parse.Types Parse.Slices Parse.Repr Parse.LaxSlices Parse.HdrModel
  Parse.HdrLaxModel Equiv.Model Equiv.Proofs Equiv.ModelLaxIp.
From Coq Require Import ZArith Lia ZifyN ZifyBool.

Local Open Scope N_scope.

(* from_ipv4_slice_lax hands back a bare ip_auth::HeaderSliceError; from_slice_lax the same
   error embedded into ip_exts::HeadersSliceError together with Layer::IpAuthHeader *)
Definition lax_hstop4 (o : option slice_error) : option stop_error :=
  option_map (fun e => (e, LyIpAuthHeader)) o.

Definition lax_ip_headers_specific (s : slice) (b : N)
  : res (ip_headers * lax_ip_payload * option stop_error) :=
  if N.shiftr b 4 =? 4 then
    rmap (fun r => (fst (fst r), snd (fst r), lax_hstop4 (snd r)))
         (LaxIpHeadersSpecific.from_ipv4_slice_lax s)
  else if N.shiftr b 4 =? 6 then LaxIpHeadersSpecific.from_ipv6_slice_lax s
  else Err (EContent (CeIpUnsupportedVersion (N.shiftr b 4))).

Lemma v4_tail_eq header hl (t : res (len_source * slice * bool)) :
  (let* t0 := t in
   let '(src, rest, incomplete) := t0 in
   let* proto := Ipv4HeaderSlice.protocol header in
   let* x := LaxIpv4Extensions.from_slice_lax proto rest in
   let '(auth, next_protocol, rest', stop) := x in
   let stop' :=
     match stop with
     | Some (ELen l) => Some (ELen (le_set_src (le_add_offset l hl) src), LyIpAuthHeader)
     | Some (EContent c) => Some (EContent c, LyIpAuthHeader)
     | None => None
     end in
   let* fragmented := Ipv4HeaderSlice.is_fragmenting_payload header in
   Ok (IhV4 header auth, mkLaxIpp incomplete next_protocol fragmented src rest', stop')) =
  rmap (fun r : ip_headers * lax_ip_payload * option slice_error =>
          (fst (fst r), snd (fst r), lax_hstop4 (snd r)))
  (let* t0 := t in
   let '(src, rest, incomplete) := t0 in
   let* proto := Ipv4HeaderSlice.protocol header in
   let* x := LaxIpv4Extensions.from_slice_lax proto rest in
   let '(auth, next_protocol, payload, stop) := x in
   let stop' :=
     match stop with
     | Some (ELen l) => Some (ELen (le_set_src (le_add_offset l hl) src))
     | o => o
     end in
   let* fragmented := Ipv4HeaderSlice.is_fragmenting_payload header in
   Ok (IhV4 header auth, mkLaxIpp incomplete next_protocol fragmented src payload, stop')).
Proof.
  destruct t as [[[src rest'] inc]|e|bg]; cbn [bind rmap]; [|reflexivity|reflexivity].
  destruct (Ipv4HeaderSlice.protocol header) as [proto|e|bg]; cbn [bind rmap]; [|reflexivity|reflexivity].
  destruct (LaxIpv4Extensions.from_slice_lax proto rest') as [[[[a nh] r'] st]|e|bg]; cbn [bind rmap];
    [|reflexivity|reflexivity].
  destruct (Ipv4HeaderSlice.is_fragmenting_payload header) as [fr|e|bg]; cbn [bind rmap fst snd];
    [|reflexivity|reflexivity].
  destruct st as [[l|c]|]; reflexivity.
Qed.

Theorem lax_ip_headers_dispatch o b rest :
  LaxIpHeaders.from_slice_lax (o, b :: rest) = lax_ip_headers_specific (o, b :: rest) b.
Proof.
  set (s := (o, b :: rest)).
  unfold LaxIpHeaders.from_slice_lax, lax_ip_headers_specific. fold s.
  unfold s at 1. rewrite s_len_cons_nz. fold s.
  change (rd (snd s) 0) with (Some b). cbn [bind].
  destruct (N.shiftr b 4 =? 4) eqn:E4.
  - unfold LaxIpHeadersSpecific.from_ipv4_slice_lax, Ipv4Header.from_slice, Ipv4HeaderSlice.from_slice.
    destruct (s_len s <? 20) eqn:E20; [reflexivity|].
    change (rdU s 0) with (@Ok N b). cbn [bind]. rewrite E4. cbn [negb].
    destruct (N.land b 15 <? 5) eqn:Eihl; [reflexivity|].
    set (hl := N.land b 15 * 4) in *.
    destruct (s_len s <? hl) eqn:Ehl; [reflexivity|].
    assert (Eh : exists header, subU s 0 hl = Ok header)
      by (unfold subU; destruct (0 + hl <=? s_len s) eqn:X; [eauto|lia]).
    destruct Eh as (header & Eh). rewrite Eh. cbn [bind rmap].
    pose proof (subU_len _ _ _ _ Eh) as Lh. rewrite Lh.
    rewrite idx_from_ok by lia. cbn [bind].
    destruct (Ipv4HeaderSlice.total_len header) as [tl|e|bg]; cbn [bind rmap]; [|reflexivity|reflexivity].
    cbv zeta. rewrite ?Lh.
    match goal with |- context [subU ?h 0 _] => set (hr := h) end.
    assert (Lr : s_len hr = s_len s - hl) by (unfold hr, s_len; cbn [snd]; now rewrite len_drop).
    assert (SEL :
      (if tl <? hl then let* n := subN (s_len s) hl in let* p := subU s hl n in Ok (LsSlice, p, false)
       else if s_len s <? tl
            then let* n := subN (s_len s) hl in let* p := subU s hl n in Ok (LsSlice, p, true)
            else let* n := subN tl hl in let* p := subU s hl n in Ok (LsIpv4HeaderTotalLen, p, false)) =
      (if tl <? hl then Ok (LsSlice, hr, false)
       else let* d := subN tl hl in
            if s_len hr <? d then Ok (LsSlice, hr, true)
            else let* p := subU hr 0 d in Ok (LsIpv4HeaderTotalLen, p, false))).
    { rewrite Lr.
      destruct (tl <? hl) eqn:Etl.
      - rewrite subN_ok by lia. cbn [bind]. rewrite subU_all by lia. reflexivity.
      - rewrite (subN_ok tl hl) by lia. cbn [bind].
        destruct (s_len s <? tl) eqn:Es.
        + destruct (s_len s - hl <? tl - hl) eqn:Es'; [|lia].
          rewrite subN_ok by lia. cbn [bind]. rewrite subU_all by lia. reflexivity.
        + destruct (s_len s - hl <? tl - hl) eqn:Es'; [lia|].
          unfold hr. rewrite subU_rest_eq by lia. reflexivity. }
    rewrite SEL. apply v4_tail_eq.
  - destruct (N.shiftr b 4 =? 6) eqn:E6; [|reflexivity].
    unfold LaxIpHeadersSpecific.from_ipv6_slice_lax, Ipv6Header.from_slice, Ipv6HeaderSlice.from_slice.
    destruct (s_len s <? 40) eqn:E40; [reflexivity|].
    change (rdU s 0) with (@Ok N b). cbn [bind]. rewrite E6. cbn [negb].
    assert (Eh : exists header, subU s 0 40 = Ok header)
      by (unfold subU; destruct (0 + 40 <=? s_len s) eqn:X; [eauto|lia]).
    destruct Eh as (header & Eh). rewrite Eh. cbn [bind].
    rewrite idx_from_ok by lia. cbn [bind].
    destruct (Ipv6HeaderSlice.payload_length header) as [pl|e|bg]; cbn [bind]; [|reflexivity|reflexivity].
    match goal with |- context [subU ?h 0 pl] => set (hr := h) end.
    assert (Lr : s_len hr = s_len s - 40) by (unfold hr, s_len; cbn [snd]; now rewrite len_drop).
    assert (SEL :
      (if (0 =? pl) && (40 <? s_len s)
       then let* n := subN (s_len s) 40 in let* p := subU s 40 n in Ok (p, LsSlice, false)
       else let* d := subN (s_len s) 40 in
            if d <? pl then let* n := subN (s_len s) 40 in let* p := subU s 40 n in Ok (p, LsSlice, true)
            else let* p := subU s 40 pl in Ok (p, LsIpv6HeaderPayloadLen, false)) =
      (if (pl =? 0) && negb (s_len hr =? 0) then Ok (hr, LsSlice, false)
       else if s_len hr <? pl then Ok (hr, LsSlice, true)
       else let* p := subU hr 0 pl in Ok (p, LsIpv6HeaderPayloadLen, false))).
    { rewrite Lr. rewrite (subN_ok (s_len s) 40) by lia. cbn [bind].
      rewrite subU_all by lia.
      destruct ((0 =? pl) && (40 <? s_len s)) eqn:Z.
      - destruct ((pl =? 0) && negb (s_len s - 40 =? 0)) eqn:Z'; [reflexivity|lia].
      - destruct ((pl =? 0) && negb (s_len s - 40 =? 0)) eqn:Z'; [lia|].
        destruct (s_len s - 40 <? pl) eqn:Es; [reflexivity|].
        unfold hr. rewrite subU_rest_eq by lia. reflexivity. }
    rewrite SEL. reflexivity.
Qed.

(* an empty slice: nothing selects a copy; the dispatching copy says (1, 0, IpHeader) *)
Lemma lax_ip_headers_empty o :
  LaxIpHeaders.from_slice_lax (o, []) = Err (ELen (mkLenError 1 0 LsSlice LyIpHeader 0)).
Proof. reflexivity. Qed.

(* the Bug arm of the error conversion in from_ipv4_slice_lax is dead *)
Lemma v4_header_err_shape s c :
  Ipv4Header.from_slice s = Err (EContent c) -> (exists v, c = CeIpv4Version v) \/ (exists v, c = CeIpv4Ihl v).
Proof.
  unfold Ipv4Header.from_slice, Ipv4HeaderSlice.from_slice, lerr, idx_from, rdU, subU.
  destruct (s_len s <? 20); [discriminate|].
  destruct (rd (snd s) 0) as [v|]; cbn [bind]; [|discriminate].
  destruct (negb (N.shiftr v 4 =? 4)); [intros H; injection H as <-; eauto|].
  destruct (N.land v 15 <? 5); [intros H; injection H as <-; eauto|].
  destruct (s_len s <? N.land v 15 * 4); [discriminate|].
  destruct (0 + N.land v 15 * 4 <=? s_len s); cbn [bind]; [|discriminate].
  match goal with |- context [if ?c then _ else _] => destruct c end; discriminate.
Qed.
