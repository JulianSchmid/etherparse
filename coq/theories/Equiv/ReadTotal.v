(* Equiv/ReadTotal.v -- C06 group 3: on a std::io::Cursor no reader of the crate
   ends in an outcome the model calls impossible (OBad): with C16's totality
   theorems the only I/O failure is the end of the data.  Per header type here
   (`read_outcome_ok`, `sll_read_ok`); for all 17 in one statement: Equiv/ReadNeverBad.v. *)
From EP Require Import Base.Bytes Base.Lists Parse.Types Parse.Slices Parse.Cursor Parse.HdrModel Parse.HdrView
  IoFault.Spec IoFault.Model IoFault.Proofs Equiv.Model Equiv.ModelRead Equiv.Proofs Equiv.ReadProofs
  Equiv.ReadBase Equiv.ReadSimple.
From Coq Require Import ZArith Lia ZifyN ZifyBool.

Local Open Scope N_scope.

Definition outcome_ok (o : outcome) : Prop := forall b, o <> OBad b.

Definition lim_ok (lim : option limrd) : Prop :=
  match lim with Some r => lr_read r <= lr_max r | None => True end.

(* A read program sees its source only through the data: it pulls a prefix, the position counter
   is threaded, and the only Io error it can meet is the one the source is set to give. *)
Lemma run_r_pulled p : forall d c e lim, 1 <= c -> lim_ok lim ->
  exists res n lim', n <= len d /\
    (forall q, run_r p (mk_rstate (mk_fsource d c e q) lim) =
               (res, mk_rstate (mk_fsource (drop n d) c e (q + n)) lim')) /\
    (forall k, res = QIo k -> k = if e then KOther else KEof).
Proof.
  induction p as [a|cc|ee| | |n k IH|layer k IH|m ls off layer k IH]; intros d c e lim Hc Hl.
  1-5: eexists _, 0, lim; (split; [lia|]);
       (split; [intros q; cbn [run_r]; rewrite drop_0, N.add_0_r; reflexivity|discriminate]).
  - (* PRead *)
    destruct lim as [r|].
    + cbn [lim_ok] in Hl.
      destruct (N.lt_ge_cases (lr_max r - lr_read r) n) as [Hn|Hn].
      * eexists _, 0, (Some r). split; [lia|]. split; [intros q|]. cbn [run_r rs_lim rs_src].
        rewrite lr_read_exact_len by assumption. rewrite drop_0, N.add_0_r. reflexivity. discriminate.
      * destruct (n <=? len d) eqn:E; ltb_tac.
        -- destruct (IH (take n d) (drop n d) c e
                        (Some (mk_limrd (lr_max r) (lr_source r) (lr_layer r) (lr_off r) (lr_read r + n))) Hc)
             as (res & n' & lim' & Hn' & R & K).
           { cbn [lim_ok lr_read lr_max]. lia. }
           exists res, (n + n'), lim'. rewrite len_drop in Hn'. split; [lia|]. split; [|exact K]. intros q.
           cbn [run_r rs_lim rs_src]. rewrite lr_read_exact_within by (cbn [src_chunk]; assumption).
           cbn [src_data src_chunk src_err src_pulled].
           is_true (n <=? len d).
           rewrite R. rewrite drop_drop, N.add_assoc. reflexivity.
        -- exists (QIo (if e then KOther else KEof)), (len d), (Some r). split; [lia|].
           split; [|intros k0 H; now injection H as <-]. intros q.
           cbn [run_r rs_lim rs_src]. rewrite lr_read_exact_within by (cbn [src_chunk]; assumption).
           cbn [src_data src_chunk src_err src_pulled].
           is_false (n <=? len d).
           rewrite drop_all by lia. reflexivity.
    + destruct (n <=? len d) eqn:E; ltb_tac.
      * destruct (IH (take n d) (drop n d) c e None Hc I) as (res & n' & lim' & Hn' & R & K).
        exists res, (n + n'), lim'. rewrite len_drop in Hn'. split; [lia|]. split; [|exact K]. intros q.
        rewrite run_PRead by (cbn [src_chunk]; exact Hc). cbn [src_data src_chunk src_err src_pulled].
        is_true (n <=? len d).
        rewrite R. rewrite drop_drop, N.add_assoc. reflexivity.
      * exists (QIo (if e then KOther else KEof)), (len d), None. split; [lia|].
        split; [|intros k0 H; now injection H as <-]. intros q.
        rewrite run_PRead by (cbn [src_chunk]; exact Hc). cbn [src_data src_chunk src_err src_pulled].
        is_false (n <=? len d).
        rewrite drop_all by lia. reflexivity.
  - (* PStart *)
    destruct lim as [r|].
    + cbn [lim_ok] in Hl.
      destruct (IH d c e (Some (mk_limrd (lr_max r - lr_read r) (lr_source r) layer (lr_off r + lr_read r) 0)) Hc)
        as (res & n' & lim' & Hn' & R & K).
      { cbn [lim_ok lr_read lr_max]. lia. }
      exists res, n', lim'. split; [exact Hn'|]. split; [|exact K]. intros q.
      cbn [run_r rs_lim rs_src]. unfold lr_start_layer, checked_sub.
      is_true (lr_read r <=? lr_max r).
      apply R.
    + eexists _, 0, None. split; [lia|]. split; [intros q|]. cbn [run_r rs_lim].
      rewrite drop_0, N.add_0_r. reflexivity. discriminate.
  - (* PLimit *)
    destruct lim as [r|].
    + eexists _, 0, (Some r). split; [lia|]. split; [intros q|]. cbn [run_r rs_lim].
      rewrite drop_0, N.add_0_r. reflexivity. discriminate.
    + destruct (IH d c e (Some (lr_new m ls off layer)) Hc) as (res & n' & lim' & Hn' & R & K).
      { cbn [lim_ok lr_new lr_read lr_max]. lia. }
      exists res, n', lim'. split; [exact Hn'|]. split; [|exact K]. intros q. cbn [run_r rs_lim rs_src]. apply R.
Qed.

Lemma run_r_eof p : forall st, st_inv st -> src_err (rs_src st) = false ->
  forall k, fst (run_r p st) = QIo k -> k = KEof.
Proof.
  intros [[d c e q] lim] [Hc Hl] He k. cbn [rs_src rs_lim src_chunk src_err] in *. subst e.
  destruct (run_r_pulled p d c false lim Hc Hl) as (res & n & lim' & _ & R & K).
  rewrite R. exact (K k).
Qed.

Lemma good_outcome_ok p bs :
  good (fst (run_r p (mk_rstate (cursor_src bs) None))) ->
  outcome_ok (outcome_of_run (run_r p (mk_rstate (cursor_src bs) None))).
Proof.
  intros Hg b.
  pose proof (run_r_eof p (mk_rstate (cursor_src bs) None)) as He.
  destruct (run_r p (mk_rstate (cursor_src bs) None)) as [q st]. cbn [fst] in *.
  destruct q as [a|k|e|c| | |]; cbn [outcome_of_run good] in *; try discriminate; try contradiction.
  rewrite (He ltac:(split; cbn; [lia|exact I]) eq_refl k eq_refl). discriminate.
Qed.

Lemma read_outcome_ok t bs : t <> HLinuxSll -> outcome_ok (read_outcome t bs).
Proof.
  intros Ht.
  assert (E : read_outcome t bs = outcome_of_run (run_r (read_prog t) (mk_rstate (cursor_src bs) None))).
  { destruct t; try reflexivity. now elim Ht. }
  rewrite E. apply good_outcome_ok.
  destruct t; try (apply plain_readers_good; [unfold plain_readers, read_prog; cbn [In]; tauto|cbn; lia]).
  - apply (proj2 (ext_readers_good false start (cursor_src bs) (mk_limrd 0 0 0 0 0) ltac:(cbn; lia) ltac:(cbn; lia))).
  - apply (proj1 (ext_readers_good false start (cursor_src bs) (mk_limrd 0 0 0 0 0) ltac:(cbn; lia) ltac:(cbn; lia))).
Qed.

Lemma sll_read_ok bs : outcome_ok (read_outcome HLinuxSll bs).
Proof.
  intros b. unfold read_outcome, sll_read.
  destruct (len bs <? 16) eqn:E; ltb_tac.
  - rewrite io_read_exact_fail by (cbn; lia). discriminate.
  - rewrite io_read_exact_ok by (cbn; lia). cbn [cursor_src src_data].
    getb bs 0 b0 H0. getb bs 1 b1 H1. getb bs 2 b2 H2. getb bs 3 b3 H3.
    getb bs 14 b14 H14. getb bs 15 b15 H15.
    unfold sll_from_bytes. rewrite !rd_take_lt by lia. rewrite H0, H1, H2, H3, H14, H15.
    unfold LinuxSll.packet_type_try_from.
    destruct (be16 b0 b1 <=? 7); [|discriminate].
    unfold LinuxSll.protocol_type_try_from.
    repeat match goal with |- context [if ?c then _ else _] => destruct c end; discriminate.
Qed.

Lemma eq_same_reason t bs :
  read_outcome t bs = slice_outcome t bs -> same_reason (read_outcome t bs) (slice_outcome t bs).
Proof.
  intros E. apply same_reason_eq; [exact E|].
  destruct t; try (apply read_outcome_ok; discriminate). apply sll_read_ok.
Qed.
