(* The two families of `read` transliterations are the same reader.

   IoFault/Model.v (C16) has every `T::read` as a read PROGRAM (the sequence of
   read_exact calls with the length fields they parse; no header value), run
   against a Cursor by Equiv/ModelRead.v `read_outcome` -- the reader of the
   outcome-level theorems C06_read_eq_slice / C06_read_ok_consumes.
   Roundtrip/*.v (C08) has every `T::read` as a VALUE reader over a byte list
   (returns the struct and the unread rest) -- the reader of C06_read_value_* (except
   Ipv6Header of BitFields/Model.v and the extension chain `read6` of ExtChain/).

   Here: for every byte string the outcome of the read program is the outcome of
   the value reader:
     Ok (h, rest)       <->  OOk (len bs - len rest)   (cursor position = bytes consumed)
     Err EIo            <->  OEof
     Err (EContent c)   <->  OContent (kind of code c)
     Err ELen           <->  a LimitedReader length error (IpHeaders only; the value
                             reader does not keep the record: `erase_len`)
     Err EOOB / EPanic  <->  never (OBad on the right would contradict C06_read_never_bad)
   Nothing is modelled anew: both sides are existing transliterations. *)
From EP Require Import Base.Bytes Base.Lists Parse.Types Parse.Slices Parse.Cursor Parse.HdrModel Parse.HdrView
  IoFault.Spec IoFault.Model IoFault.Proofs Equiv.Model Equiv.ModelRead Equiv.Proofs Equiv.ReadProofs
  Equiv.ReadBase Equiv.ReadSimple.
From EP Require Roundtrip.Common Roundtrip.CommonProofs Roundtrip.Eth Roundtrip.Vlan Roundtrip.Sll Roundtrip.Macsec
  Roundtrip.Ipv4 Roundtrip.Ipv6 Roundtrip.Auth Roundtrip.RawExt Roundtrip.Frag Roundtrip.Arp Roundtrip.Tcp
  Roundtrip.Udp Roundtrip.Icmp4 Roundtrip.Icmp6 Roundtrip.Exts4 Equiv.ReadValues Equiv.ReadValuesLink
  Roundtrip.DecodersTotal
  Roundtrip.Icmp4Proofs Roundtrip.Icmp6Proofs CtlMsg.Spec CtlMsg.Proofs.
From Coq Require Import ZArith Lia ZifyN ZifyBool.

Local Open Scope N_scope.
Module RC := EP.Roundtrip.Common.

(* ---- the outcome of a value reader ------------------------------------------------ *)
Definition rt_outcome {A} (kind : N -> outcome) (bs : bytes) (rest : A -> bytes) (r : RC.res A) : outcome :=
  match r with
  | RC.Ok a => OOk (len bs - len (rest a))
  | RC.Err RC.EIo => OEof
  | RC.Err (RC.EContent c) => kind c
  | RC.Err RC.ELen => OLen 0 0 0 0 0
  | RC.Err RC.EOOB => OBad 200
  | RC.Err RC.EPanic => OBad 201
  end.

(* a LimitedReader length error without its record *)
Definition erase_len (o : outcome) : outcome :=
  match o with OLen _ _ _ _ _ => OLen 0 0 0 0 0 | o => o end.

Definition no_kind (c : N) : outcome := OBad 210.

Lemma take_pre (pre t : bytes) n : len pre = n -> take n (pre ++ t) = pre.
Proof. intros <-. apply take_len_app. Qed.
Lemma drop_pre (pre t : bytes) n : len pre = n -> drop n (pre ++ t) = t.
Proof.
  intros <-. unfold drop, len. rewrite Nat2N.id. rewrite skipn_app, skipn_all, Nat.sub_diag. reflexivity.
Qed.

Ltac split_pre bs k E :=
  let pre := fresh "pre" in let t := fresh "t" in let Hpre := fresh "Hpre" in
  destruct (Equiv.ReadValues.split_n k bs E) as (pre & t & -> & Hpre);
  repeat (destruct pre as [|? pre]; [discriminate Hpre|]); destruct pre; [|discriminate Hpre]; clear Hpre.

(* the n octets of a prefix, one by one *)
Ltac conses pre Hpre :=
  repeat (destruct pre as [|? pre]; [discriminate Hpre|]); destruct pre; [|discriminate Hpre]; clear Hpre.

Ltac fin_len := cbn [rt_outcome snd fst]; rewrite ?len_app; f_equal;
  unfold len; cbn [length]; lia.

Ltac lens := repeat (rewrite len_cons in * || rewrite len_app in * || rewrite len_drop in * || rewrite (@len_nil N) in * ).
Ltac fin := cbn [rt_outcome snd fst]; f_equal; lens; lia.
Ltac rt_settle :=
  match goal with |- context [if ?a <? ?b then RC.Err RC.EIo else _] =>
    first [is_true (a <? b) | is_false (a <? b)] end.
Ltac rd_red := lazy beta iota zeta delta [rd nth_error N.to_nat Pos.to_nat Pos.iter_op Nat.add app].

(* one read_exact of the program against one read_exact of the value reader: both end at a
   short input; otherwise both go on with the prefix read and the rest *)
Lemma link_read {A} kind (bs : bytes) n k (f : bytes -> bytes -> RC.res (A * bytes)) d p :
  (forall pre t, d = pre ++ t -> length pre = N.to_nat n ->
     O (k pre) (mk_st t (p + n) MPlain) = rt_outcome kind bs snd (f pre t)) ->
  O (PRead n k) (mk_st d p MPlain) =
  rt_outcome kind bs snd
    (match RC.read_exact d n with RC.Err e => RC.Err e | RC.Ok (pre, t) => f pre t end).
Proof.
  intros H. rewrite O_read by exact I. cbn [avail m_adv m_fail]. unfold RC.read_exact.
  destruct (len d <? n) eqn:E; ltb_tac.
  - is_false (n <=? len d). reflexivity.
  - is_true (n <=? len d). apply H; [symmetry; apply take_drop|].
    unfold take. rewrite firstn_length. unfold len in *. lia.
Qed.

(* ---- headers of fixed size: Ethernet2Header, SingleVlanHeader, UdpHeader ---- *)
(* n octets that always decode: one read_exact on either side *)
Lemma link_fixed {H} n (dec : bytes -> RC.res H) bs :
  (n <= len bs -> exists h, dec (take n bs) = RC.Ok h) ->
  (if n <=? len bs then OOk n else OEof) =
  rt_outcome no_kind bs snd
    (match RC.read_exact bs n with
     | RC.Err e => RC.Err e
     | RC.Ok (buf, r1) => match dec buf with RC.Err e => RC.Err e | RC.Ok h => RC.Ok (h, r1) end
     end).
Proof.
  intros T. unfold RC.read_exact. destruct (len bs <? n) eqn:E; ltb_tac.
  - is_false (n <=? len bs). reflexivity.
  - is_true (n <=? len bs). destruct (T ltac:(lia)) as [h ->].
    cbn [rt_outcome snd]. rewrite len_drop. f_equal. lia.
Qed.

Lemma udp_from_bytes_ok bs : 8 <= len bs -> exists h, Roundtrip.Udp.udp_from_bytes (take 8 bs) = RC.Ok h.
Proof.
  intros E. split_pre bs 8%nat E. rewrite take_pre by reflexivity. eexists. reflexivity.
Qed.

Lemma link_ethernet2 bs :
  read_outcome HEthernet2 bs = rt_outcome no_kind bs snd (Roundtrip.Eth.eth_read bs).
Proof.
  unfold read_outcome, read_prog. rewrite read_fixed_outcome.
  apply link_fixed, Equiv.ReadValuesLink.eth_to_header_ok.
Qed.

Lemma link_single_vlan bs :
  read_outcome HSingleVlan bs = rt_outcome no_kind bs snd (Roundtrip.Vlan.vl_read bs).
Proof.
  unfold read_outcome, read_prog. rewrite read_fixed_outcome.
  apply link_fixed, Equiv.ReadValuesLink.vl_to_header_ok.
Qed.

Lemma link_udp bs :
  read_outcome HUdp bs = rt_outcome no_kind bs snd (Roundtrip.Udp.udp_read bs).
Proof.
  unfold read_outcome, read_prog. rewrite read_fixed_outcome.
  apply link_fixed, udp_from_bytes_ok.
Qed.

(* ---- Ipv6FragmentHeader ---- *)
Lemma link_ipv6_frag bs :
  read_outcome HIpv6Frag bs = rt_outcome no_kind bs snd (Roundtrip.Frag.frag_read bs).
Proof.
  rewrite read_outcome_O by discriminate. unfold read_prog, ipv6_frag_read, with_start.
  unfold Roundtrip.Frag.frag_read.
  apply link_read. intros pre t -> Hpre. conses pre Hpre.
  cbn [at_ rd nth_error N.to_nat].
  match goal with |- context [Roundtrip.Frag.frag_to_header ?l] =>
    assert (exists h, Roundtrip.Frag.frag_to_header l = RC.Ok h) as [h ->] by (eexists; reflexivity) end.
  rewrite O_ret. fin_len.
Qed.

(* ---- LinuxSllHeader ---- *)
(* the value reader's content codes: 0 = packet type, 1 = ARP hardware id; the offending
   values are the two big-endian fields *)
Definition sll_kind (bs : bytes) (c : N) : outcome :=
  match rd bs 0, rd bs 1, rd bs 2, rd bs 3 with
  | Some b0, Some b1, Some b2, Some b3 =>
      if c =? 0 then OContent (KSllPacketType (be16 b0 b1)) else OContent (KSllArpHardwareId (be16 b2 b3))
  | _, _, _, _ => OBad 211
  end.

Lemma link_linux_sll bs :
  read_outcome HLinuxSll bs = rt_outcome (sll_kind bs) bs snd (Roundtrip.Sll.sll_read bs).
Proof.
  unfold read_outcome, sll_read, Roundtrip.Sll.sll_read, RC.read_exact.
  destruct (len bs <? 16) eqn:E; ltb_tac.
  - rewrite io_read_exact_fail by (cbn; lia). reflexivity.
  - rewrite io_read_exact_ok by (cbn; lia). cbn [cursor_src src_data].
    split_pre bs 16%nat E. rewrite take_pre, drop_pre by reflexivity.
    unfold sll_from_bytes, Roundtrip.Sll.sll_from_bytes, sll_kind.
    rd_red.
    unfold LinuxSll.packet_type_try_from, Roundtrip.Sll.sll_packet_type_try_from.
    destruct (be16 n n0 <=? 7); [|reflexivity].
    unfold LinuxSll.protocol_type_try_from, Roundtrip.Sll.sll_protocol_try_from.
    change LinuxSll.ARPHRD_NETLINK with 824. change LinuxSll.ARPHRD_IPGRE with 778.
    change LinuxSll.ARPHRD_RADIOTAP with 803. change LinuxSll.ARPHRD_FRAD with 770.
    change LinuxSll.ARPHRD_ETHERNET with 1.
    destruct (be16 n1 n2 =? 824); [fin_len|].
    destruct (be16 n1 n2 =? 778); [fin_len|].
    destruct (be16 n1 n2 =? 803); [fin_len|].
    destruct (be16 n1 n2 =? 770); [fin_len|].
    destruct (be16 n1 n2 =? 1); [|reflexivity].
    destruct (LinuxSll.nonstandard (be16 n13 n14)), (Roundtrip.Sll.sll_nonstd_try_from (be16 n13 n14)); fin_len.
Qed.

(* ---- MacsecHeader ---- *)
(* codes of the value reader: 0 = UnexpectedVersion, 1 = InvalidUnmodifiedShortLen *)
Definition macsec_kind (c : N) : outcome :=
  if c =? 0 then OContent (KC CMacsecVersion) else OContent (KC CMacsecShortLen).

Lemma mac_finish (first more r2 : bytes) tci rl :
  rd first 0 = Some tci -> len first = 6 -> rl = Roundtrip.Macsec.mac_required_len tci ->
  len more = rl - 6 -> 6 <= rl -> rl <= 16 ->
  exists h,
    match RC.slice_range (first ++ more ++ RC.zeros (16 - 6 - len more)) 0 rl with
    | None => RC.Err RC.EPanic
    | Some hs => match Roundtrip.Macsec.mac_to_header hs with
                 | RC.Err e => RC.Err e
                 | RC.Ok h => RC.Ok (h, r2)
                 end
    end = RC.Ok (h, r2).
Proof.
  intros R L Hrl Lm G6 G16. unfold RC.slice_range.
  assert (LB : len (first ++ more ++ RC.zeros (16 - 6 - len more)) = 16).
  { rewrite !len_app, Roundtrip.CommonProofs.len_zeros. lia. }
  rewrite LB. is_true (0 <=? rl). is_true (rl <=? 16). cbn [andb].
  rewrite N.sub_0_r, Lists.drop_0.
  destruct (Roundtrip.DecodersTotal.mac_to_header_ok
              (take rl (first ++ more ++ RC.zeros (16 - 6 - len more))) tci) as [h ->].
  - rewrite rd_take_lt by lia. destruct first as [|x f]; [discriminate|]. exact R.
  - rewrite len_take, LB. lia.
  - exists h. reflexivity.
Qed.

Lemma nz_band_bit v m : RC.nz (RC.band v m) = Macsec.bit v m.
Proof. reflexivity. Qed.

Lemma link_macsec bs : bytes_ok bs ->
  read_outcome HMacsec bs = rt_outcome macsec_kind bs snd (Roundtrip.Macsec.mac_read bs).
Proof.
  intros Hb. rewrite read_outcome_O by discriminate.
  unfold read_prog, macsec_header_read, Roundtrip.Macsec.mac_read.
  apply link_read. intros pre t -> Hpre. conses pre Hpre.
  apply bytes_ok_app in Hb. destruct Hb as [Hb _].
  assert (Hn : n < 256) by (inversion Hb; assumption).
  set (first := [n; n0; n1; n2; n3; n4]).
  change (rd first 0) with (Some n). change (rd first 1) with (Some n0). cbv iota beta.
  unfold at_. change (rd first 0) with (Some n). change (rd first 1) with (Some n0). cbv iota beta.
  rewrite (bit7 n Hn), (bit5 n Hn), nz_band_bit.
  destruct (Macsec.bit n 128); [reflexivity|].
  change (RC.band n 12) with (N.land n 12). change (RC.band n0 63) with (N.land n0 63).
  rewrite land63_mod. cbv zeta.
  assert (RL : 6 + (if N.land n 12 =? 0 then 2 else 0) + (if Macsec.bit n 32 then 8 else 0)
               = Roundtrip.Macsec.mac_required_len n) by reflexivity.
  rewrite RL.
  assert (B : 6 <= Roundtrip.Macsec.mac_required_len n <= 16).
  { rewrite <- RL. destruct (N.land n 12 =? 0), (Macsec.bit n 32); lia. }
  set (rl := Roundtrip.Macsec.mac_required_len n) in *.
  destruct ((N.land n 12 =? 0) && (n0 mod 64 =? 1)); [reflexivity|].
  destruct (6 <? rl) eqn:E6; ltb_tac.
  - is_true (rl <=? 16). unfold RC.read_exact.
    rd_step.
    + is_false (len t <? rl - 6). rewrite O_ret.
      destruct (mac_finish first (take (rl - 6) t) (drop (rl - 6) t) n rl) as [h Eh];
        try reflexivity; try lia.
      { rewrite len_take. lia. }
      rewrite Eh. cbn [rt_outcome snd]. rewrite len_app, len_drop. f_equal.
      change (len first) with 6. lia.
    + is_true (len t <? rl - 6). reflexivity.
  - rewrite O_ret.
    destruct (mac_finish first [] t n rl) as [h Eh]; try reflexivity; try lia.
    { change (len (@nil N)) with 0. lia. }
    rewrite Eh. cbn [rt_outcome snd]. rewrite len_app. f_equal. change (len first) with 6. lia.
Qed.

(* ---- Ipv4Header ---- *)
(* the value reader's code is the offending value itself (version number, or IHL when the
   version is 4); the kind is told by the version nibble *)
Definition ipv4_kind (bs : bytes) (c : N) : outcome :=
  match bs with
  | b0 :: _ => if N.shiftr b0 4 =? 4 then OContent (KC CIhl) else OContent (KC CVersion)
  | [] => OBad 212
  end.

Lemma link_ipv4 bs :
  read_outcome HIpv4 bs = rt_outcome (ipv4_kind bs) bs snd (Roundtrip.Ipv4.ip4_read bs).
Proof.
  rewrite read_outcome_O by discriminate.
  unfold read_prog, ipv4_header_read, Roundtrip.Ipv4.ip4_read.
  apply link_read. intros pre t -> Hpre. conses pre Hpre.
  unfold at_. change (rd [n] 0) with (Some n). cbv iota beta zeta.
  unfold ipv4_kind. cbn [app]. change (RC.shr n 4) with (N.shiftr n 4). rewrite <- shr4_div.
  destruct (N.shiftr n 4 =? 4); cbn [negb]; [|reflexivity].
  unfold ipv4_read_without_version. unfold RC.read_exact at 1.
  rd_step.
  2:{ is_true (len t <? 19). reflexivity. }
  is_false (len t <? 19).
  assert (E19 : N.of_nat 19 <= len t) by (change (N.of_nat 19) with 19; lia).
  split_pre t 19%nat E19. rewrite take_pre, drop_pre by reflexivity. cbv iota beta.
  change (RC.band n 15) with (N.land n 15). rewrite land15_mod.
  assert (M : n mod 16 < 16) by (apply N.mod_lt; discriminate).
  destruct (n mod 16 <? 5) eqn:Ei; ltb_tac; [reflexivity|].
  unfold RC.as_u8. rewrite (N.mod_small ((n mod 16 - 5) * 4) 256) by lia.
  destruct ((n mod 16 - 5) * 4 =? 0) eqn:Eo; ltb_tac.
  - rewrite O_ret. fin.
  - is_true ((n mod 16 - 5) * 4 <=? 40). unfold RC.read_exact.
    rd_step.
    + is_false (len t0 <? (n mod 16 - 5) * 4). rewrite O_ret. fin.
    + is_true (len t0 <? (n mod 16 - 5) * 4). reflexivity.
Qed.

(* ---- Ipv6Header ---- *)
Definition ipv6_kind (c : N) : outcome := OContent (KC CVersion).

Lemma link_ipv6 bs :
  read_outcome HIpv6 bs = rt_outcome ipv6_kind bs snd (Roundtrip.Ipv6.ip6_read bs).
Proof.
  rewrite read_outcome_O by discriminate.
  unfold read_prog, ipv6_header_read, Roundtrip.Ipv6.ip6_read.
  apply link_read. intros pre t -> Hpre. conses pre Hpre.
  unfold at_. change (rd [n] 0) with (Some n). cbv iota beta zeta.
  change (RC.shr n 4) with (N.shiftr n 4). rewrite <- shr4_div.
  destruct (N.shiftr n 4 =? 6); cbn [negb]; [|reflexivity].
  unfold ipv6_read_without_version, Roundtrip.Ipv6.ip6_read_without_version, RC.read_exact.
  rd_step.
  2:{ is_true (len t <? 39). reflexivity. }
  is_false (len t <? 39).
  assert (E39 : N.of_nat 39 <= len t) by (change (N.of_nat 39) with 39; lia).
  split_pre t 39%nat E39. rewrite take_pre, drop_pre by reflexivity. cbv iota beta.
  rewrite O_ret.
  match goal with |- context [RC.slice_range ?l 7 23] =>
    assert (exists a, RC.slice_range l 7 23 = Some a) as [a ->] by (eexists; reflexivity);
    assert (exists b, RC.slice_range l 23 39 = Some b) as [b ->] by (eexists; reflexivity) end.
  fin.
Qed.

(* ---- IpAuthHeader ---- *)
Definition auth_kind (c : N) : outcome := OContent (KC CAuthZeroLen).

Lemma link_auth_gen (summary : N -> list N) bs : bytes_ok bs ->
  O (ip_auth_read false (fun nh => PRet (summary nh))) (mk_st bs 0 MPlain) =
  rt_outcome auth_kind bs snd (Roundtrip.Auth.ah_read bs).
Proof.
  intros Hb.
  unfold ip_auth_read, with_start, Roundtrip.Auth.ah_read.
  apply link_read. intros pre t -> Hpre. conses pre Hpre.
  apply bytes_ok_app in Hb. destruct Hb as [Hb _].
  assert (Hn : n0 < 256) by (inversion Hb as [|? ? _ Hb']; inversion Hb'; assumption).
  unfold at_. rd_red.
  destruct (n0 <? 1) eqn:Ep; ltb_tac; [reflexivity|].
  unfold Roundtrip.Auth.AH_MAX_ICV_LEN. is_false (1016 <? (n0 - 1) * 4).
  unfold RC.read_exact.
  rd_step.
  - is_false (len t <? (n0 - 1) * 4). rewrite O_ret. fin.
  - is_true (len t <? (n0 - 1) * 4). reflexivity.
Qed.

Lemma link_ip_auth bs : bytes_ok bs ->
  read_outcome HIpAuth bs = rt_outcome auth_kind bs snd (Roundtrip.Auth.ah_read bs).
Proof.
  intros Hb. rewrite read_outcome_O by discriminate. exact (link_auth_gen (fun nh => [nh]) bs Hb).
Qed.

(* ---- Ipv4Extensions ---- *)
Lemma link_ipv4_exts start bs : bytes_ok bs ->
  read_outcome (HIpv4Exts start) bs =
  rt_outcome auth_kind bs snd (Roundtrip.Exts4.x4_read bs start).
Proof.
  intros Hb. rewrite read_outcome_O by discriminate.
  unfold read_prog, x4_read, Roundtrip.Exts4.x4_read.
  change Roundtrip.Exts4.X4_AUTH with AUTH.
  destruct (AUTH =? start).
  - rewrite (link_auth_gen (fun nh => [nh; 1]) bs Hb).
    destruct (Roundtrip.Auth.ah_read bs) as [[h r1]|e]; reflexivity.
  - rewrite O_ret. cbn [rt_outcome snd]. f_equal. lia.
Qed.

(* ---- Ipv6RawExtHeader ---- *)
Lemma link_ipv6_raw_ext bs : bytes_ok bs ->
  read_outcome HIpv6RawExt bs = rt_outcome no_kind bs snd (Roundtrip.RawExt.rx_read bs).
Proof.
  intros Hb. rewrite read_outcome_O by discriminate.
  unfold read_prog, ipv6_raw_ext_read, with_start, Roundtrip.RawExt.rx_read.
  apply link_read. intros pre t -> Hpre. conses pre Hpre.
  apply bytes_ok_app in Hb. destruct Hb as [Hb _].
  assert (Hn : n0 < 256) by (inversion Hb as [|? ? _ Hb']; inversion Hb'; assumption).
  unfold at_. rd_red.
  unfold Roundtrip.RawExt.RX_MAX_PAYLOAD_LEN. is_false (2046 <? n0 * 8 + 6).
  unfold RC.read_exact.
  rd_step.
  - is_false (len t <? n0 * 8 + 6). rewrite O_ret. fin.
  - is_true (len t <? n0 * 8 + 6). reflexivity.
Qed.

(* ---- ArpPacket ---- *)
Lemma link_arp bs : bytes_ok bs ->
  read_outcome HArp bs = rt_outcome no_kind bs snd (Roundtrip.Arp.arp_read bs).
Proof.
  intros Hb. rewrite read_outcome_O by discriminate.
  unfold read_prog, arp_packet_read, Roundtrip.Arp.arp_read.
  apply link_read. intros pre t -> Hpre. conses pre Hpre.
  apply bytes_ok_app in Hb. destruct Hb as [Hb _].
  assert (H4 : n3 < 256 /\ n4 < 256).
  { apply bytes_okb_spec in Hb. cbn [bytes_okb forallb] in Hb. unfold byte_okb in Hb. lia. }
  unfold at_. rd_red.
  is_false (255 <? n3). is_false (255 <? n4). cbn [orb].
  unfold RC.read_exact.
  do 4 (rd_step; rewrite ?len_drop; [rt_settle|rt_settle; reflexivity]).
  rewrite O_ret. fin.
Qed.

(* ---- TcpHeader ---- *)
Definition tcp_kind (c : N) : outcome := OContent (KC CDataOffset).

Lemma tcp_b12_link v : v < 256 ->
  RC.shr (RC.band v 240) 4 = v / 16 /\ RC.shl8 (v / 16 - 5) 2 = (v / 16 - 5) * 4 /\ v / 16 < 16.
Proof.
  intros H.
  pose proof (sweep256 (fun v => (RC.shr (RC.band v 240) 4 =? v / 16) && (RC.shl8 (v / 16 - 5) 2 =? (v / 16 - 5) * 4)
                        && (v / 16 <? 16)) ltac:(vm_compute; reflexivity) v H) as S.
  cbv beta in S. apply andb_prop in S. destruct S as [S S3]. apply andb_prop in S. destruct S as [S1 S2].
  ltb_tac. auto.
Qed.

Lemma link_tcp bs : bytes_ok bs ->
  read_outcome HTcp bs = rt_outcome tcp_kind bs snd (Roundtrip.Tcp.read bs).
Proof.
  intros Hb. rewrite read_outcome_O by discriminate.
  unfold read_prog, tcp_header_read, Roundtrip.Tcp.read.
  apply link_read. intros pre t -> Hpre. conses pre Hpre.
  apply bytes_ok_app in Hb. destruct Hb as [Hb _].
  assert (Hn : n11 < 256).
  { apply bytes_okb_spec in Hb. cbn [bytes_okb forallb] in Hb. unfold byte_okb in Hb. lia. }
  unfold at_. rd_red.
  destruct (tcp_b12_link n11 Hn) as (T1 & T2 & T3). rewrite T1.
  destruct (n11 / 16 <? 5) eqn:Ed; ltb_tac; [reflexivity|].
  rewrite T2.
  destruct (0 <? (n11 / 16 - 5) * 4) eqn:Eo; ltb_tac.
  - is_true ((n11 / 16 - 5) * 4 <=? 40). unfold RC.read_exact.
    rd_step; [rt_settle|rt_settle; reflexivity].
    rewrite O_ret. fin.
  - rewrite O_ret. fin.
Qed.

(* ---- Icmpv6Header ---- *)
Lemma link_icmpv6 bs :
  read_outcome HIcmpv6 bs = rt_outcome no_kind bs snd (Roundtrip.Icmp6.icmp6_read bs).
Proof.
  unfold read_outcome, read_prog. rewrite read_fixed_outcome.
  destruct (len bs <? 8) eqn:E.
  - unfold Roundtrip.Icmp6.icmp6_read, RC.read_exact. rewrite E. ltb_tac. is_false (8 <=? len bs). reflexivity.
  - destruct (CtlMsg.Proofs.len_ge_cons8 bs E) as (t & c & k0 & k1 & b4 & b5 & b6 & b7 & rest & ->).
    rewrite Roundtrip.Icmp6Proofs.icmp6_read_8. ltb_tac.
    match goal with |- context [8 <=? ?x] => is_true (8 <=? x) end. fin.
Qed.

(* ---- Icmpv4Header ---- *)
Lemma link_icmpv4 bs :
  read_outcome HIcmpv4 bs = rt_outcome no_kind bs snd (Roundtrip.Icmp4.icmp4_read bs).
Proof.
  rewrite icmpv4_read_form.
  destruct (len bs <? 8) eqn:E.
  { unfold Roundtrip.Icmp4.icmp4_read, RC.read_exact. rewrite E. reflexivity. }
  destruct (CtlMsg.Proofs.len_ge_cons8 bs E) as (t & c & k0 & k1 & b4 & b5 & b6 & b7 & rest & ->).
  change (rd (t :: c :: k0 :: k1 :: b4 :: b5 :: b6 :: b7 :: rest) 0) with (Some t).
  change (rd (t :: c :: k0 :: k1 :: b4 :: b5 :: b6 :: b7 :: rest) 1) with (Some c). cbv iota.
  unfold icmpv4_ts. rewrite (N.eqb_sym c 0), Roundtrip.Icmp4Proofs.icmp4_read_test.
  destruct (CtlMsg.Spec.lookup t c CtlMsg.Spec.icmp4_fixed_table) as [v|] eqn:LF.
  - destruct (Roundtrip.Icmp4Proofs.fixed_table_cases t c v LF) as [T ->].
    change (t :: 0 :: k0 :: k1 :: b4 :: b5 :: b6 :: b7 :: rest) with ([t; 0; k0; k1; b4; b5; b6; b7] ++ rest).
    rewrite len_app. change (len [t; 0; k0; k1; b4; b5; b6; b7]) with 8.
    destruct (8 + len rest <? 20) eqn:E20; ltb_tac.
    + unfold Roundtrip.Icmp4.icmp4_read.
      rewrite Roundtrip.CommonProofs.read_exact_app by reflexivity.
      change (rd [t; 0; k0; k1; b4; b5; b6; b7] 0) with (Some t).
      change (rd [t; 0; k0; k1; b4; b5; b6; b7] 1) with (Some 0). cbv iota beta.
      rewrite Roundtrip.Icmp4Proofs.icmp4_read_test, LF.
      unfold RC.read_exact. is_true (len rest <? 12). reflexivity.
    + assert (E12 : N.of_nat 12 <= len rest) by (change (N.of_nat 12) with 12; lia).
      split_pre rest 12%nat E12.
      change ([t; 0; k0; k1; b4; b5; b6; b7] ++ [n; n0; n1; n2; n3; n4; n5; n6; n7; n8; n9; n10] ++ t0)
        with ([t; 0; k0; k1; b4; b5; b6; b7; n; n0; n1; n2; n3; n4; n5; n6; n7; n8; n9; n10] ++ t0).
      rewrite Roundtrip.Icmp4Proofs.icmp4_read_20 by exact T. fin.
  - rewrite (Roundtrip.Icmp4Proofs.icmp4_read_8 _ _ _ _ _ _ _ _ _ LF). fin.
Qed.
