(* Equiv/HdrLaxShift.v -- C06 group 1 for the lax struct family (LaxPacketHeaders):
   from_ethernet against from_ether_type on the bytes behind the Ethernet II header, and
   from_ether_type(IPv4 | IPv6) against from_ip (from_linux_sll is in Equiv/SllStart.v).

   Pointer-shift equivariance of every decoder of Parse/HdrLaxModel.v (same
   technique as Equiv/HdrShift.v / Equiv/LaxShift.v).  LaxPacketHeaders keeps no
   cursor: from_ether_type counts its `offset` from the slice it is given, and
   from_ethernet / from_linux_sll add 14 / 16 to the layer_start_offset of a Len
   stop error afterwards.  So the equivariance is an EQUATION between model values
   (every decoded header / payload slice moved by k, the stop error untouched), and
   the entry-point theorems add the explicit +14 / +16. *)
From EP Require Import Base.Bytes Base.Lists Parse.Types Parse.Cursor Parse.LaxSlices Parse.HdrModel
  Parse.HdrLaxModel Equiv.Model Equiv.ShiftProofs Equiv.HdrShift Equiv.LaxShift.
From Coq Require Import ZArith Lia ZifyN ZifyBool.

Local Open Scope N_scope.

(* ---- shifted values of the lax struct model ----------------------------------------- *)
Definition sh_hl k (l : hlink) : hlink :=
  match l with HlEthernet2 h => HlEthernet2 (sh k h) | HlLinuxSll h => HlLinuxSll (sh k h) end.
Definition sh_lhpl k (p : lhpayload) : lhpayload :=
  match p with
  | LHpEmpty => LHpEmpty
  | LHpEther e => LHpEther (sh_lep k e)
  | LHpMacsecMod i s => LHpMacsecMod i (sh k s)
  | LHpIp i => LHpIp (sh_lipp k i)
  | LHpUdp i s => LHpUdp i (sh k s) | LHpTcp i s => LHpTcp i (sh k s)
  | LHpIcmpv4 i s => LHpIcmpv4 i (sh k s) | LHpIcmpv6 i s => LHpIcmpv6 i (sh k s)
  | LHpLinuxSll pt s => LHpLinuxSll pt (sh k s)
  end.
(* the stop error is NOT touched: its offsets count from the start of the slice *)
Definition sh_lh k (p : lhpacket) : lhpacket :=
  mkLH (option_map (sh_hl k) (lh_link p)) (map (sh_hx k) (lh_exts p)) (option_map (sh_hnet k) (lh_net p))
       (option_map (sh_htr k) (lh_transport p)) (sh_lhpl k (lh_payload p)) (lh_stop p).

(* ---- Ipv4Extensions::from_slice_lax ---------------------------------------------------- *)
Definition sh_x4l k (r : option slice * N * slice * option slice_error) :=
  (option_map (sh k) (fst (fst (fst r))), snd (fst (fst r)), sh k (snd (fst r)), snd r).

Lemma lax4x_slice_sh k start s :
  LaxIpv4Exts.from_slice_lax start (sh k s) = rmap (sh_x4l k) (LaxIpv4Exts.from_slice_lax start s).
Proof. unfold LaxIpv4Exts.from_slice_lax. steps. Qed.
#[export] Hint Resolve lax4x_slice_sh : sh.

Lemma lax4x_sh k start s :
  LaxIpv4Extensions.from_slice_lax start (sh k s) =
  rmap (sh_x4l k) (LaxIpv4Extensions.from_slice_lax start s).
Proof.
  unfold LaxIpv4Extensions.from_slice_lax. steps.
  match goal with o : option slice |- _ => destruct o end; cbn [option_map]; steps.
Qed.
#[export] Hint Resolve lax4x_sh : sh.

(* ---- Ipv6Extensions::from_slice_lax ---------------------------------------------------- *)
Lemma len_stop_sh k slice rest e ly :
  LaxIpv6Extensions.len_stop (sh k slice) (sh k rest) e ly = LaxIpv6Extensions.len_stop slice rest e ly.
Proof. reflexivity. Qed.

Lemma raw_ok_sh k rest sl :
  LaxIpv6Extensions.raw_ok (sh k rest) (sh k sl) = rmap (sh_step k) (LaxIpv6Extensions.raw_ok rest sl).
Proof. unfold LaxIpv6Extensions.raw_ok. steps. Qed.
#[export] Hint Resolve raw_ok_sh : sh.

Definition sh_x6l' k (r : exts6 * N * slice * option stop_error) :=
  (sh_x k (fst (fst (fst r))), snd (fst (fst r)), sh k (snd (fst r)), snd r).

Lemma lax6_loop_sh k fuel : forall slice x rest nh,
  LaxIpv6Extensions.loop fuel (sh k slice) (sh_x k x) (sh k rest) nh =
  rmap (sh_x6l' k) (LaxIpv6Extensions.loop fuel slice x rest nh).
Proof.
  induction fuel as [|f IH]; intros slice x rest nh; [reflexivity|].
  cbn [LaxIpv6Extensions.loop]. destruct x as [hbh dest route fdest frag auth].
  cbn [sh_x x_hbh x_dest x_route x_fdest x_frag x_auth]. rewrite !is_some_map.
  destruct (nh =? IPN_HOP_BY_HOP); [reflexivity|].
  destruct (nh =? IPN_DEST_OPTIONS).
  { destruct route as [rt|]; cbn [option_map]; steps;
      match goal with |- _ = rmap _ (LaxIpv6Extensions.loop _ _ ?x' _ _) => apply (IH slice x') end. }
  steps; match goal with |- _ = rmap _ (LaxIpv6Extensions.loop _ _ ?x' _ _) => apply (IH slice x') end.
Qed.

Lemma lax6x_sh k start s :
  LaxIpv6Extensions.from_slice_lax start (sh k s) =
  rmap (sh_x6l' k) (LaxIpv6Extensions.from_slice_lax start s).
Proof.
  unfold LaxIpv6Extensions.from_slice_lax. rewrite snd_sh.
  steps; match goal with |- _ = rmap _ (LaxIpv6Extensions.loop _ _ ?x' _ _) => apply (lax6_loop_sh k _ s x') end.
Qed.
#[export] Hint Resolve lax6x_sh : sh.

(* ---- IpHeaders::from_slice_lax ---------------------------------------------------------- *)
Definition sh_lihp k (r : ip_headers * lax_ip_payload * option stop_error) :=
  (sh_ih k (fst (fst r)), sh_lipp k (snd (fst r)), snd r).

Lemma lax_iph_sh k s :
  LaxIpHeaders.from_slice_lax (sh k s) = rmap (sh_lihp k) (LaxIpHeaders.from_slice_lax s).
Proof.
  unfold LaxIpHeaders.from_slice_lax. rewrite !s_len_sh, snd_sh.
  steps; rewrite frag_flag_sh; steps.
Qed.
#[export] Hint Resolve lax_iph_sh : sh.

(* ---- accessors of the transport slices --------------------------------------------------- *)
Lemma icmp4_header_sh k v : Icmpv4Acc.header (sh k v) = rmap (sh k) (Icmpv4Acc.header v).
Proof. unfold Icmpv4Acc.header, Icmpv4Acc.header_len. steps. Qed.
Lemma icmp4_payload_sh k v : Icmpv4Acc.payload (sh k v) = rmap (sh k) (Icmpv4Acc.payload v).
Proof. unfold Icmpv4Acc.payload, Icmpv4Acc.header_len. steps. Qed.
Lemma icmp6_header_sh k v : Icmpv6Acc.header (sh k v) = rmap (sh k) (Icmpv6Acc.header v).
Proof. unfold Icmpv6Acc.header. steps. Qed.
Lemma icmp6_payload_sh k v : Icmpv6Acc.payload (sh k v) = rmap (sh k) (Icmpv6Acc.payload v).
Proof. unfold Icmpv6Acc.payload. steps. Qed.
Lemma udp_to_header_sh k v : UdpAcc.to_header (sh k v) = rmap (sh k) (UdpAcc.to_header v).
Proof. unfold UdpAcc.to_header. steps. Qed.
Lemma udp_payload_sh k v : UdpAcc.payload (sh k v) = rmap (sh k) (UdpAcc.payload v).
Proof. unfold UdpAcc.payload. steps. Qed.
#[export] Hint Resolve icmp4_header_sh icmp4_payload_sh icmp6_header_sh icmp6_payload_sh
  udp_to_header_sh udp_payload_sh : sh.

(* ---- LaxPacketHeaders ---------------------------------------------------------------------- *)
Import SlicedPacketCursor.
Import LaxPacketHeaders.

Lemma sh_lh_with_stop k r e :
  LaxPacketHeaders.with_stop (sh_lh k r) e = sh_lh k (LaxPacketHeaders.with_stop r e).
Proof. reflexivity. Qed.

Lemma sh_lh_with_transport k r t p :
  LaxPacketHeaders.with_transport (sh_lh k r) (sh_htr k t) (sh_lhpl k p) =
  sh_lh k (LaxPacketHeaders.with_transport r t p).
Proof. reflexivity. Qed.

Lemma add_len_source_sh k p off e :
  add_len_source (sh_lipp k p) off e = add_len_source p off e.
Proof. reflexivity. Qed.

Lemma add_transport_sh k self1 p off :
  add_transport (sh_lh k self1) (sh_lipp k p) off = rmap (sh_lh k) (add_transport self1 p off).
Proof.
  unfold add_transport. cbn [sh_lipp lipp_incomplete lipp_fragmented lipp_number lipp_slice]. steps.
Qed.

Lemma add_ip_sh k self off s :
  add_ip (sh_lh k self) off (sh k s) = rmap (sh_lh k) (add_ip self off s).
Proof.
  unfold add_ip. rewrite lax_iph_sh.
  destruct (LaxIpHeaders.from_slice_lax s) as [[[ip ipp] st]|[?|?]|?]; cbn [bind rmap sh_lihp fst snd];
    try reflexivity.
  destruct st as [e|]; [reflexivity|].
  change (s_off (lipp_slice (sh_lipp k ipp))) with (s_off (lipp_slice ipp) + k).
  rewrite s_off_sh, subN_add_cancel.
  destruct (subN (s_off (lipp_slice ipp)) (s_off s)) as [d|[?|?]|?]; cbn [bind rmap]; try reflexivity.
  apply (add_transport_sh k (mkLH (lh_link self) (lh_exts self) (Some (HnIp ip)) (lh_transport self)
                                  (LHpIp ipp) (lh_stop self)) ipp (off + d)).
Qed.

#[export] Hint Resolve add_ip_sh : sh.

Definition sh_ls k (st : lstate) : lstate :=
  mkLs (sh_lh k (ls_result st)) (sh k (ls_rest st)) (ls_offset st) (ls_et st) (ls_src st).
Definition sh_llo k (o : lloop_out) : lloop_out :=
  match o with LLReturn p => LLReturn (sh_lh k p) | LLBreak st => LLBreak (sh_ls k st) end.

Lemma lh_push_ext_sh k r x :
  LaxPacketHeaders.push_ext (sh_lh k r) (sh_hx k x) = rmap (sh_lh k) (LaxPacketHeaders.push_ext r x).
Proof.
  unfold LaxPacketHeaders.push_ext. cbn [sh_lh lh_exts]. rewrite len_map.
  destruct (len (lh_exts r) <? LINK_EXTS_CAP); [|reflexivity].
  cbn [rmap]. unfold sh_lh. cbn [lh_link lh_exts lh_net lh_transport lh_payload lh_stop].
  rewrite map_app. reflexivity.
Qed.

Lemma lh_push_macsec_sh k r m :
  LaxPacketHeaders.push_ext (sh_lh k r) (HxMacsec (lms_header (sh_lms k m))) =
  rmap (sh_lh k) (LaxPacketHeaders.push_ext r (HxMacsec (lms_header m))).
Proof. exact (lh_push_ext_sh k r (HxMacsec (lms_header m))). Qed.
#[export] Hint Resolve lh_push_macsec_sh : sh.

Lemma lh_link_loop_sh k fuel : forall st,
  link_loop fuel (sh_ls k st) = rmap (sh_llo k) (link_loop fuel st).
Proof.
  induction fuel as [|f IH]; intros st; [reflexivity|].
  cbn [link_loop]. destruct st as [result rest off et src].
  cbn [sh_ls ls_result ls_rest ls_offset ls_et ls_src].
  change (lh_exts (sh_lh k result)) with (map (sh_hx k) (lh_exts result)). rewrite !len_map.
  steps.
  - match goal with |- _ = rmap _ (bind (push_ext ?r ?e) _) =>
      apply (bind_sh _ _ _ _ _ _ (lh_push_ext_sh k r e)); intros r2 end.
    match goal with |- _ = rmap _ (link_loop f ?st0) => apply (IH st0) end.
  - match goal with |- context [lms_payload (sh_lms k ?m)] =>
      change (lms_payload (sh_lms k m)) with (sh_lmp k (lms_payload m));
      destruct (lms_payload m) as [l|inc pl] end; cbn [sh_lmp]; [|reflexivity].
    steps. match goal with |- _ = rmap _ (link_loop f ?st0) => apply (IH st0) end.
Qed.

Lemma lh_net_part_sh k st : net_part (sh_ls k st) = rmap (sh_lh k) (net_part st).
Proof.
  unfold net_part. destruct st as [result rest off et src].
  cbn [sh_ls ls_result ls_rest ls_offset ls_et ls_src]. steps.
Qed.

Theorem lh_from_ether_type_slice_sh k et s :
  from_ether_type_slice et (sh k s) = rmap (sh_lh k) (from_ether_type_slice et s).
Proof.
  unfold from_ether_type_slice.
  change (mkLs (mkLH None [] None None (LHpEther (mkLaxEp false et LsSlice (sh k s))) None) (sh k s) 0 et LsSlice)
    with (sh_ls k (mkLs (mkLH None [] None None (LHpEther (mkLaxEp false et LsSlice s)) None) s 0 et LsSlice)).
  rewrite lh_link_loop_sh.
  destruct (link_loop 5 _) as [[p|st]|[?|?]|?]; cbn [bind rmap sh_llo]; try reflexivity.
  apply lh_net_part_sh.
Qed.

(* ---- group 1a: from_ethernet against from_ether_type --------------------------------------- *)
(* what the first entry point's answer is, given the second's on the bytes behind the
   k-byte link header `link`: every decoded header and payload slice k bytes later, the
   layer_start_offset of a Len stop error k later (LaxShift.sh_stop; layer tag,
   required_len, len, len_source and content errors equal), the link header in front *)
Definition lh_behind (k : N) (link : hlink) (r : res lhpacket) : res lhpacket :=
  match r with
  | Ok p => Ok (mkLH (Some link) (map (sh_hx k) (lh_exts p)) (option_map (sh_hnet k) (lh_net p))
                     (option_map (sh_htr k) (lh_transport p)) (sh_lhpl k (lh_payload p))
                     (option_map (sh_stop k) (lh_stop p)))
  | r => r
  end.

Lemma shift_stop_spec k r l :
  shift_stop (LaxPacketHeaders.with_link (sh_lh k r) l) k =
  mkLH (Some l) (map (sh_hx k) (lh_exts r)) (option_map (sh_hnet k) (lh_net r))
       (option_map (sh_htr k) (lh_transport r)) (sh_lhpl k (lh_payload r))
       (option_map (sh_stop k) (lh_stop r)).
Proof.
  unfold shift_stop, LaxPacketHeaders.with_link, sh_lh. cbn [lh_link lh_exts lh_net lh_transport lh_payload lh_stop].
  destruct (lh_stop r) as [[[e|c] ly]|]; reflexivity.
Qed.

Lemma with_link_shift_stop k r l :
  LaxPacketHeaders.with_link (shift_stop r k) l = shift_stop (LaxPacketHeaders.with_link r l) k.
Proof.
  unfold shift_stop, LaxPacketHeaders.with_link. destruct (lh_stop r) as [[[e|c] ly]|] eqn:E; cbn; rewrite ?E; reflexivity.
Qed.

Theorem laxheaders_ethernet_eq_ethertype bs a b :
  rd bs 12 = Some a -> rd bs 13 = Some b ->
  from_ethernet bs = lh_behind 14 (HlEthernet2 (0, take 14 bs)) (from_ether_type (be16 a b) (drop 14 bs)).
Proof.
  intros Ha Hb. destruct (eth_hdr_long bs a b Ha Hb) as [EH ET].
  unfold from_ethernet, from_ether_type. rewrite EH. cbn [bind]. rewrite ET. cbn [bind].
  rewrite lh_from_ether_type_slice_sh.
  destruct (from_ether_type_slice (be16 a b) (mk_slice (drop 14 bs))) as [r|[e|c]|bg]; cbn [rmap bind lh_behind];
    try reflexivity.
  now rewrite shift_stop_spec.
Qed.

Theorem laxheaders_ethernet_short bs : len bs < 14 ->
  from_ethernet bs = Err (ELen (mkLenError 14 (len bs) LsSlice LyEthernet2Header 0)).
Proof. intros H. unfold from_ethernet. rewrite (eth_hdr_short bs H). reflexivity. Qed.

(* ---- group 1b: from_ether_type(IPv4 | IPv6) against from_ip -------------------------------- *)
(* both call the same add_ip (-> IpHeaders::from_slice_lax, version-dispatching: the
   ether type does not select the decoder, F10).  What differs: from_ip returns the
   first header's error (`?`), from_ether_type keeps it as stop error with layer
   IpHeader and the ether payload it started from as payload. *)
Definition lh_ip_as_ether_type (et : N) (bs : bytes) (r : res lhpacket) : res lhpacket :=
  match r with
  | Ok p => Ok p
  | Err e => Ok (mkLH None [] None None (LHpEther (mkLaxEp false et LsSlice (mk_slice bs))) (Some (e, LyIpHeader)))
  | Bug b => Bug b
  end.

Lemma add_ip_payload_irrelevant self self' off s :
  lh_link self = lh_link self' -> lh_exts self = lh_exts self' -> lh_transport self = lh_transport self' ->
  lh_stop self = lh_stop self' ->
  match add_ip self off s, add_ip self' off s with
  | Ok a, Ok b => a = b
  | Err a, Err b => a = b
  | Bug a, Bug b => a = b
  | _, _ => False
  end.
Proof.
  destruct self as [l x n t p st], self' as [l' x' n' t' p' st']. cbn [lh_link lh_exts lh_transport lh_stop].
  intros -> -> -> ->. unfold add_ip.
  destruct (LaxIpHeaders.from_slice_lax s) as [[[ip ipp] stop]|e|b]; cbn [bind]; try reflexivity.
  cbn [lh_link lh_exts lh_transport lh_stop].
  destruct (match stop with Some e => _ | None => _ end); reflexivity.
Qed.

Theorem laxheaders_ethertype_eq_ip et bs : et = ET_IPV4 \/ et = ET_IPV6 ->
  from_ether_type et bs = lh_ip_as_ether_type et bs (from_ip bs).
Proof.
  intros Het. unfold from_ether_type, from_ether_type_slice, from_ip.
  set (r0 := mkLH None [] None None (LHpEther (mkLaxEp false et LsSlice (mk_slice bs))) None).
  assert (L : link_loop 5 (mkLs r0 (mk_slice bs) 0 et LsSlice) = Ok (LLBreak (mkLs r0 (mk_slice bs) 0 et LsSlice))).
  { destruct Het as [-> | ->]; reflexivity. }
  rewrite L. cbn [bind]. unfold net_part. cbn [ls_result ls_rest ls_offset ls_et].
  assert (E : (et =? ET_IPV4) || (et =? ET_IPV6) = true) by (destruct Het as [-> | ->]; reflexivity).
  rewrite E.
  pose proof (add_ip_payload_irrelevant r0 (mkLH None [] None None (LHpUdp true (0, [])) None) 0 (mk_slice bs)
                eq_refl eq_refl eq_refl eq_refl) as P.
  destruct (add_ip r0 0 (mk_slice bs)) as [a|[l|c]|b], (add_ip _ 0 (mk_slice bs)) as [a'|e'|b'];
    try contradiction; cbn [lh_ip_as_ether_type].
  - now subst.
  - subst e'. unfold LaxPacketHeaders.with_stop. cbn. now rewrite le_add_offset_0.
  - subst e'. reflexivity.
  - now subst.
Qed.
