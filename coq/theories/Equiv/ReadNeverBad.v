(* read against from_slice, for every input:
   * no reader reaches an outcome the model calls impossible (OBad: Io error other than the end of the data,
     usize underflow of the LimitedReader, impossible index, fuel exhausted), for EVERY input and all 17
     header types;
   * inside the class cut_fixed for IpHeaders (C06_read_cut_fixed_inside has the other two header types);
   * what `same_reason` compares, spelled out: a Len error on either side is the same record on the other
     (len, len_source, layer, layer_start_offset equal; required_len equal except for the documented
     raw-extension-header case), a content rejection the same kind, end of data end of data. *)
From EP Require Import Base.Bytes Base.Lists Parse.Types Parse.HdrModel IoFault.Model Equiv.ModelRead
  Equiv.ReadProofs Equiv.ReadBase Equiv.ReadSimple Equiv.ReadIpHeaders Equiv.ReadTotal Equiv.ReadAll.
From Coq Require Import ZArith Lia ZifyN ZifyBool.
Local Open Scope N_scope.

Theorem read_never_bad t bs b : read_outcome t bs <> OBad b.
Proof.
  destruct t; try (apply read_outcome_ok; discriminate). apply sll_read_ok.
Qed.

Lemma read_cut_fixed_ip_headers bs : cut_fixed HIpHeaders bs = true ->
  read_outcome HIpHeaders bs = OContent (KC CIhl) /\ slice_outcome HIpHeaders bs = OEof.
Proof.
  intros Hc. destruct bs as [|b0 r]; [discriminate|]. cbn [cut_fixed] in Hc. set (bs := b0 :: r) in *.
  apply andb_prop in Hc. destruct Hc as [Hc Hi]. apply andb_prop in Hc. destruct Hc as [Hl Hv].
  assert (H0 : rd bs 0 = Some b0) by reflexivity.
  assert (L1 : 1 <= len bs) by (unfold bs; rewrite len_cons; lia).
  rewrite read_outcome_O by discriminate.
  unfold slice_outcome, read_prog, ip_headers_read, IpHeaders.from_slice.
  change (s_len (mk_slice bs)) with (len bs).
  is_false (len bs =? 0). cbn [mk_slice snd]. rewrite H0. cbn [bind]. rewrite Hv.
  change (0, bs) with (mk_slice bs).
  split.
  - rd_step; [|lia].
    rewrite (at_some _ 0 b0) by (rewrite rd_take_lt by lia; exact H0).
    rewrite <- shr4_div. rewrite Hv. rewrite <- land15_mod. change (4 =? 4) with true. cbv iota.
    is_true (N.land b0 15 <? 5). reflexivity.
  - change (s_len (mk_slice bs)) with (len bs). ltb_tac. is_true (len bs <? 20). reflexivity.
Qed.

Theorem read_len_error_full t bs : bytes_ok bs -> cut_fixed t bs = false ->
  (t = HIpHeaders -> announced_missing bs = false /\ F15 bs = false) ->
  forall rq l src ly off,
  (read_outcome t bs = OLen rq l src ly off ->
   exists rq', slice_outcome t bs = OLen rq' l src ly off /\
               (rq = rq' \/ (ly = L_IPV6EXT /\ l < 8 /\ l < rq /\ rq' = 8))) /\
  (slice_outcome t bs = OLen rq l src ly off ->
   exists rq', read_outcome t bs = OLen rq' l src ly off /\
               (rq' = rq \/ (ly = L_IPV6EXT /\ l < 8 /\ l < rq' /\ rq = 8))).
Proof.
  intros Hb Hc Hi rq l src ly off. pose proof (read_eq_slice_all t bs Hb Hc Hi) as H.
  split; intros E; rewrite E in H.
  - destruct (slice_outcome t bs); cbn [same_reason] in H; try contradiction.
    destruct H as (-> & -> & -> & -> & D). eexists. split; [reflexivity|exact D].
  - destruct (read_outcome t bs); cbn [same_reason] in H; try contradiction.
    destruct H as (<- & <- & <- & <- & D). eexists. split; [reflexivity|exact D].
Qed.

(* the same for the two other rejection classes: a content rejection / an end-of-data answer on one side is
   the same answer on the other *)
Theorem read_rejection_iff t bs : bytes_ok bs -> cut_fixed t bs = false ->
  (t = HIpHeaders -> announced_missing bs = false /\ F15 bs = false) ->
  (forall k, read_outcome t bs = OContent k <-> slice_outcome t bs = OContent k) /\
  (read_outcome t bs = OEof <-> slice_outcome t bs = OEof).
Proof.
  intros Hb Hc Hi. pose proof (read_eq_slice_all t bs Hb Hc Hi) as H.
  split; [intros k|]; split; intros E; rewrite E in H.
  - destruct (slice_outcome t bs); cbn [same_reason] in H; try contradiction. now subst.
  - destruct (read_outcome t bs); cbn [same_reason] in H; try contradiction. now subst.
  - destruct (slice_outcome t bs); cbn [same_reason] in H; try contradiction. reflexivity.
  - destruct (read_outcome t bs); cbn [same_reason] in H; try contradiction. reflexivity.
Qed.
