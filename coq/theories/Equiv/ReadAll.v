(* Equiv/ReadAll.v -- C06 group 3, all 17 header types: read(Cursor(bs)) and
   from_slice(bs) give the same header (decoded from the same n bytes, cursor
   advanced by exactly n) or reject for the same reason; the three decidable
   classes outside of which this holds, each with a witness. *)
From EP Require Import Base.Bytes IoFault.Model Equiv.ModelRead Equiv.ReadProofs Equiv.ReadBase
  Equiv.ReadSimple Equiv.ReadChain Equiv.ReadIpHeaders Equiv.ReadTotal.
From Coq Require Import ZArith Lia ZifyN ZifyBool.

Local Open Scope N_scope.

Theorem read_eq_slice_all t bs : bytes_ok bs -> cut_fixed t bs = false ->
  (t = HIpHeaders -> announced_missing bs = false /\ F15 bs = false) ->
  same_reason (read_outcome t bs) (slice_outcome t bs).
Proof.
  intros Hb Hc Hi. destruct t.
  - apply eq_same_reason, read_eq_slice_ethernet2.
  - apply eq_same_reason, read_eq_slice_single_vlan.
  - apply eq_same_reason, read_eq_slice_linux_sll.
  - apply eq_same_reason, read_eq_slice_macsec, Hb.
  - apply eq_same_reason, read_eq_slice_ipv4, Hc.
  - apply eq_same_reason, read_eq_slice_ipv6, Hc.
  - apply eq_same_reason, read_eq_slice_ip_auth.
  - apply eq_same_reason, read_eq_slice_ipv6_raw_ext.
  - apply eq_same_reason, read_eq_slice_ipv6_frag.
  - apply eq_same_reason, read_eq_slice_arp.
  - apply eq_same_reason, read_eq_slice_tcp, Hb.
  - apply eq_same_reason, read_eq_slice_udp.
  - apply eq_same_reason, read_eq_slice_icmpv4.
  - apply eq_same_reason, read_eq_slice_icmpv6.
  - apply eq_same_reason, read_eq_slice_ipv4_exts, Hb.
  - apply read_eq_slice_ipv6_exts, Hb.
  - destruct (Hi eq_refl) as [Ha HF]. now apply read_eq_slice_ip_headers.
Qed.

(* exact equality of the outcomes for the 15 types without a LimitedReader / loop *)
Theorem read_eq_slice_exact t bs : bytes_ok bs -> cut_fixed t bs = false ->
  match t with HIpv6Exts _ | HIpHeaders => True | _ => read_outcome t bs = slice_outcome t bs end.
Proof.
  intros Hb Hc. destruct t; try exact I.
  - apply read_eq_slice_ethernet2.
  - apply read_eq_slice_single_vlan.
  - apply read_eq_slice_linux_sll.
  - apply read_eq_slice_macsec, Hb.
  - apply read_eq_slice_ipv4, Hc.
  - apply read_eq_slice_ipv6, Hc.
  - apply read_eq_slice_ip_auth.
  - apply read_eq_slice_ipv6_raw_ext.
  - apply read_eq_slice_ipv6_frag.
  - apply read_eq_slice_arp.
  - apply read_eq_slice_tcp, Hb.
  - apply read_eq_slice_udp.
  - apply read_eq_slice_icmpv4.
  - apply read_eq_slice_icmpv6.
  - apply read_eq_slice_ipv4_exts, Hb.
Qed.

(* a successful read consumed exactly the header: the Cursor stands behind the
   n bytes from_slice decoded the header from *)
Corollary read_ok_consumes t bs n : bytes_ok bs -> cut_fixed t bs = false ->
  (t = HIpHeaders -> announced_missing bs = false /\ F15 bs = false) ->
  read_outcome t bs = OOk n -> slice_outcome t bs = OOk n.
Proof.
  intros Hb Hc Hi E. pose proof (read_eq_slice_all t bs Hb Hc Hi) as H. rewrite E in H.
  destruct (slice_outcome t bs); cbn in H; try contradiction. now subst.
Qed.

(* ---- the classes are needed --------------------------------------------------- *)
(* inside cut_fixed: the reader has already rejected, from_slice says "too short" *)
Lemma read_cut_fixed_refuted :
  (cut_fixed HIpv4 [48] = true /\ read_outcome HIpv4 [48] = OContent (KC CVersion) /\
   slice_outcome HIpv4 [48] = OEof) /\
  (cut_fixed HIpv6 [64] = true /\ read_outcome HIpv6 [64] = OContent (KC CVersion) /\
   slice_outcome HIpv6 [64] = OEof) /\
  (cut_fixed HIpHeaders [64] = true /\ read_outcome HIpHeaders [64] = OContent (KC CIhl) /\
   slice_outcome HIpHeaders [64] = OEof).
Proof. repeat split; vm_compute; reflexivity. Qed.

(* IPv4 header announcing 28 bytes, 20 present: read decodes the header,
   from_slice wants the announced packet *)
Definition missing_witness : bytes := [69;0;0;28; 0;0;0;0; 64;17;0;0; 1;2;3;4; 5;6;7;8].
Lemma read_announced_missing_refuted :
  bytes_ok missing_witness /\ cut_fixed HIpHeaders missing_witness = false /\
  F15 missing_witness = false /\ announced_missing missing_witness = true /\
  read_outcome HIpHeaders missing_witness = OOk 20 /\ slice_outcome HIpHeaders missing_witness = OEof.
Proof.
  split; [apply bytes_okb_spec; vm_compute; reflexivity|]. repeat split; vm_compute; reflexivity.
Qed.

(* the one place where same_reason is weaker than equality: a raw extension header
   cut by the IPv6 payload length with 1 byte left: the reader says required_len 2,
   the slice decoder 8 *)
Definition req_witness : bytes :=
  [96;0;0;0;0;1;60;64] ++ repeat 0 32 ++ [17].
Lemma read_required_len_differs :
  read_outcome HIpHeaders req_witness = OLen 2 1 LS_IPV6_PAYLOAD L_IPV6EXT 40 /\
  slice_outcome HIpHeaders req_witness = OLen 8 1 LS_IPV6_PAYLOAD L_IPV6EXT 40.
Proof. split; vm_compute; reflexivity. Qed.
