(* Equiv/ShiftProofs.v -- C06 group 1a: SlicedPacket::from_ethernet against
   SlicedPacket::from_ether_type on the bytes behind the Ethernet II header.

   The slicers never look at the pointer of the slice they are given except to
   derive the pointers of sub-slices and pointer differences; so moving the
   input by k bytes moves every window of the answer by k bytes, and a cursor
   that starts with offset k reports every layer_start_offset k bytes later.
   This is proved function by function for the whole strict slicing stack. *)
From EP Require Import Base.Bytes Base.Lists Parse.Types Parse.Slices Parse.Cursor Parse.View Equiv.Model.
From Coq Require Import ZArith Lia ZifyN ZifyBool.
Import SlicedPacketCursor.

Local Open Scope N_scope.

(* ---- moving a slice -------------------------------------------------------- *)
Definition sh (k : N) (s : slice) : slice := (fst s + k, snd s).
Arguments sh : simpl never.

Lemma s_len_sh k s : s_len (sh k s) = s_len s. Proof. reflexivity. Qed.
Lemma s_off_sh k s : s_off (sh k s) = s_off s + k. Proof. reflexivity. Qed.
Lemma snd_sh k s : snd (sh k s) = snd s. Proof. reflexivity. Qed.
Lemma fst_sh k s : fst (sh k s) = fst s + k. Proof. reflexivity. Qed.
Lemma rdU_sh k s i : rdU (sh k s) i = rdU s i. Proof. reflexivity. Qed.
Lemma rd16_sh k s i : rd16 (sh k s) i = rd16 s i. Proof. reflexivity. Qed.

(* advancing the pointer of a moved slice *)
Lemma sh_adv k s n (l : bytes) : (fst (sh k s) + n, l) = sh k (fst s + n, l).
Proof. unfold sh. cbn [fst snd]. f_equal. lia. Qed.

Lemma subU_sh k s a n : subU (sh k s) a n = rmap (sh k) (subU s a n).
Proof.
  unfold subU. rewrite s_len_sh. destruct (a + n <=? s_len s); [|reflexivity].
  cbn [rmap]. now rewrite sh_adv.
Qed.

(* pointer differences do not see a common move *)
Lemma subN_add_cancel a b k : subN (a + k) (b + k) = subN a b.
Proof.
  unfold subN. destruct (b + k <=? a + k) eqn:E1, (b <=? a) eqn:E2; try lia; [|reflexivity].
  f_equal. lia.
Qed.

Lemma win_sh k s : win_of (sh k s) = shw k (win_of s).
Proof. reflexivity. Qed.

(* A decoder is a chain of `bind`s.  Given a moved slice, every stage returns the moved result
   of the stage on the original slice (or the same rejection), so the move passes through each
   `bind`; a stage that does not look at the pointer is the same on both sides. *)
Lemma bind_sh {A B C D} (fa : A -> C) (fb : B -> D) (r' : res C) (r : res A) (g : C -> res D) (f : A -> res B) :
  r' = rmap fa r -> (forall a, g (fa a) = rmap fb (f a)) -> bind r' g = rmap fb (bind r f).
Proof. intros -> H. destruct r; [apply H|reflexivity|reflexivity]. Qed.

Lemma bind_same {A B D} (fb : B -> D) (r : res A) (g : A -> res D) (f : A -> res B) :
  (forall a, g a = rmap fb (f a)) -> bind r g = rmap fb (bind r f).
Proof. intros H. destruct r; [apply H|reflexivity|reflexivity]. Qed.

Lemma bind_assoc {A B C} (r : res A) (f : A -> res B) (g : B -> res C) :
  bind (bind r f) g = bind r (fun a => bind (f a) g).
Proof. destruct r; reflexivity. Qed.

Lemma map_len_err_sh {A B} (f : len_error -> len_error) (g : A -> B) r' (r : res A) :
  r' = rmap g r -> map_len_err f r' = rmap g (map_len_err f r).
Proof. intros ->. destruct r as [a|[?|?]|?]; reflexivity. Qed.

(* The hint set `sh` holds, for every stage, the equation "on a moved slice it returns the moved
   result". *)
Create HintDb sh discriminated.
#[export] Hint Resolve subU_sh map_len_err_sh : sh.

(* One stage of a decoder.  A `bind` whose first stage is in the hint set, or is the same on both
   sides up to the pointer, is passed by one of the two lemmas (a tuple result is taken apart,
   and so is the map that moves it); nested `bind`s are flattened; a test on the same
   scrutinee on both sides, at the head or as the first stage, goes by cases, and so does a
   stage whose rejection the decoder rewrites in place. *)
Ltac parts x fa :=
  lazymatch type of x with
  | prod _ _ =>
      repeat match type of x with prod _ _ => destruct x as [x ?] end;
      lazymatch fa with ?h _ => unfold h | _ => idtac end
  | _ => idtac
  end.
Ltac step :=
  match goal with
  | |- bind (bind _ _) _ = rmap _ (bind (bind _ _) _) => rewrite !bind_assoc
  | |- bind ?r' _ = rmap _ (bind ?r _) =>
      let E := fresh in
      eassert (E : r' = rmap _ r) by (solve [eauto 2 with sh nocore]);
      lazymatch type of E with _ = rmap ?fa _ =>
        apply (bind_sh fa _ _ _ _ _ E); clear E; let x := fresh "x" in intro x; parts x fa
      end
  | |- bind _ _ = rmap _ (bind _ _) => apply bind_same; let x := fresh "x" in intro x; parts x tt
  | |- match ?c with _ => _ end = rmap _ (match ?c' with _ => _ end) => change c with c'; destruct c'
  | |- bind (match ?c with _ => _ end) _ = rmap _ (bind (match ?c' with _ => _ end) _) =>
      change c with c'; destruct c'
  | |- match ?fa ?x with _ => _ end = rmap _ (match ?x with _ => _ end) => parts x fa
  | |- match ?r' with _ => _ end = rmap _ (match ?r with _ => _ end) =>
      let E := fresh in
      eassert (E : r' = rmap _ r) by (solve [eauto 2 with sh nocore]); rewrite E; clear E;
      destruct r as [?|[?|?]|?]
  | |- bind (match ?r' with _ => _ end) _ = rmap _ (bind (match ?r with _ => _ end) _) =>
      let E := fresh in
      eassert (E : r' = rmap _ r) by (solve [eauto 2 with sh nocore]); rewrite E; clear E;
      destruct r as [?|[?|?]|?]
  end;
  cbn [bind rmap map_len_err fst snd].
(* all stages; what is left is an equation between values, or a last stage in tail position, which
   is in the hint set (or, in an induction over the fuel, the induction hypothesis) *)
Ltac steps :=
  unfold lerr; cbn [bind rmap map_len_err]; repeat step;
  try first [reflexivity | solve [eauto 2 with sh nocore]].

(* ---- shifted values of the slicing model ---------------------------------- *)
Definition sh_ep k (e : ether_payload) : ether_payload :=
  mkEtherPayload (ep_ether_type e) (ep_src e) (sh k (ep_slice e)).
Definition sh_ipp k (p : ip_payload) : ip_payload :=
  mkIpPayload (ipp_number p) (ipp_fragmented p) (ipp_src p) (sh k (ipp_slice p)).
Definition sh_mp k (m : macsec_payload) : macsec_payload :=
  match m with MpUnmodified e => MpUnmodified (sh_ep k e) | MpModified s => MpModified (sh k s) end.
Definition sh_ms k (m : macsec_slice) : macsec_slice :=
  mkMacsecSlice (sh k (ms_header m)) (sh_mp k (ms_payload m)).
Definition sh_v4 k (v : ipv4_slice) : ipv4_slice :=
  mkIpv4Slice (sh k (v4_header v)) (option_map (sh k) (v4_auth v)) (sh_ipp k (v4_payload v)).
Definition sh_x6 k (x : ipv6_exts_slice) : ipv6_exts_slice :=
  mkIpv6Exts (x6_first x) (x6_fragmented x) (sh k (x6_slice x)).
Definition sh_v6 k (v : ipv6_slice) : ipv6_slice :=
  mkIpv6Slice (sh k (v6_header v)) (sh_x6 k (v6_exts v)) (sh_ipp k (v6_payload v)).
Definition sh_lext k (x : link_ext_slice) : link_ext_slice :=
  match x with LeVlan s => LeVlan (sh k s) | LeMacsec m => LeMacsec (sh_ms k m) end.
Definition sh_net k (n : net_slice) : net_slice :=
  match n with
  | NtIpv4 v => NtIpv4 (sh_v4 k v) | NtIpv6 v => NtIpv6 (sh_v6 k v) | NtArp s => NtArp (sh k s)
  end.
Definition sh_tr k (t : transport_slice) : transport_slice :=
  match t with
  | TrUdp s => TrUdp (sh k s) | TrTcp hl s => TrTcp hl (sh k s)
  | TrIcmpv4 s => TrIcmpv4 (sh k s) | TrIcmpv6 s => TrIcmpv6 (sh k s)
  end.

(* ---- single-layer slicers -------------------------------------------------- *)
Lemma vlan_from_slice_sh k s :
  SingleVlanSlice.from_slice (sh k s) = rmap (sh k) (SingleVlanSlice.from_slice s).
Proof. unfold SingleVlanSlice.from_slice. steps. Qed.

Lemma vlan_payload_sh k s :
  SingleVlanSlice.payload (sh k s) = rmap (sh_ep k) (SingleVlanSlice.payload s).
Proof.
  unfold SingleVlanSlice.payload, SingleVlanSlice.ether_type, SingleVlanSlice.payload_slice. steps.
Qed.

Lemma macsec_header_sh k s :
  Macsec.header_from_slice (sh k s) = rmap (sh k) (Macsec.header_from_slice s).
Proof. unfold Macsec.header_from_slice. steps. Qed.

Lemma macsec_epl_sh k h : Macsec.expected_payload_len (sh k h) = Macsec.expected_payload_len h.
Proof. reflexivity. Qed.
Lemma macsec_net_sh k h : Macsec.next_ether_type (sh k h) = Macsec.next_ether_type h.
Proof. reflexivity. Qed.
Lemma macsec_hl_sh k h : Macsec.header_len (sh k h) = Macsec.header_len h.
Proof. reflexivity. Qed.
Lemma macsec_sl_sh k h : Macsec.short_len (sh k h) = Macsec.short_len h.
Proof. reflexivity. Qed.
#[export] Hint Resolve vlan_from_slice_sh vlan_payload_sh macsec_header_sh : sh.

Lemma macsec_from_slice_sh k s :
  Macsec.from_slice (sh k s) = rmap (sh_ms k) (Macsec.from_slice s).
Proof. unfold Macsec.from_slice. steps. Qed.

Lemma arp_from_slice_sh k s :
  ArpPacketSlice.from_slice (sh k s) = rmap (sh k) (ArpPacketSlice.from_slice s).
Proof. unfold ArpPacketSlice.from_slice. steps. Qed.

Lemma v4h_from_slice_sh k s :
  Ipv4HeaderSlice.from_slice (sh k s) = rmap (sh k) (Ipv4HeaderSlice.from_slice s).
Proof. unfold Ipv4HeaderSlice.from_slice. steps. Qed.

Lemma auth_from_slice_sh k s :
  IpAuthHeaderSlice.from_slice (sh k s) = rmap (sh k) (IpAuthHeaderSlice.from_slice s).
Proof. unfold IpAuthHeaderSlice.from_slice. steps. Qed.

#[export] Hint Resolve macsec_from_slice_sh arp_from_slice_sh v4h_from_slice_sh auth_from_slice_sh : sh.

Lemma v4_finish_sh k h hp :
  Ipv4Slice.finish (sh k h) (sh k hp) = rmap (sh_v4 k) (Ipv4Slice.finish h hp).
Proof. unfold Ipv4Slice.finish. steps. Qed.
#[export] Hint Resolve v4_finish_sh : sh.

Lemma v4_from_slice_sh k s :
  Ipv4Slice.from_slice (sh k s) = rmap (sh_v4 k) (Ipv4Slice.from_slice s).
Proof. unfold Ipv4Slice.from_slice. steps. Qed.

Lemma v6h_from_slice_sh k s :
  Ipv6HeaderSlice.from_slice (sh k s) = rmap (sh k) (Ipv6HeaderSlice.from_slice s).
Proof. unfold Ipv6HeaderSlice.from_slice. steps. Qed.

Lemma raw_from_slice_sh k s :
  Ipv6RawExtHeaderSlice.from_slice (sh k s) = rmap (sh k) (Ipv6RawExtHeaderSlice.from_slice s).
Proof. unfold Ipv6RawExtHeaderSlice.from_slice. steps. Qed.

Lemma frag_from_slice_sh k s :
  Ipv6FragmentHeaderSlice.from_slice (sh k s) = rmap (sh k) (Ipv6FragmentHeaderSlice.from_slice s).
Proof. unfold Ipv6FragmentHeaderSlice.from_slice. steps. Qed.

#[export] Hint Resolve v4_from_slice_sh v6h_from_slice_sh raw_from_slice_sh frag_from_slice_sh : sh.

Definition sh_walk k (r : slice * N * bool) : slice * N * bool :=
  let '(s, n, b) := r in (sh k s, n, b).

Lemma walk_sh k fuel : forall start_len rest nh fr,
  Ipv6ExtensionsSlice.walk fuel start_len (sh k rest) nh fr =
  rmap (sh_walk k) (Ipv6ExtensionsSlice.walk fuel start_len rest nh fr).
Proof.
  induction fuel as [|f IH]; intros start_len rest nh fr; [reflexivity|].
  cbn [Ipv6ExtensionsSlice.walk]. steps.
Qed.

(* the hop-by-hop arm of from_slice steps over the first header before it walks *)
Lemma walk_adv_sh k fuel start_len s n l nh fr :
  Ipv6ExtensionsSlice.walk fuel start_len (fst (sh k s) + n, l) nh fr =
  rmap (sh_walk k) (Ipv6ExtensionsSlice.walk fuel start_len (fst s + n, l) nh fr).
Proof. rewrite sh_adv. apply walk_sh. Qed.
#[export] Hint Resolve walk_sh walk_adv_sh : sh.

Definition sh_x6r k (r : ipv6_exts_slice * N * slice) : ipv6_exts_slice * N * slice :=
  let '(x, n, s) := r in (sh_x6 k x, n, sh k s).

Lemma x6_from_slice_sh k nh s :
  Ipv6ExtensionsSlice.from_slice nh (sh k s) = rmap (sh_x6r k) (Ipv6ExtensionsSlice.from_slice nh s).
Proof. unfold Ipv6ExtensionsSlice.from_slice. steps. Qed.
#[export] Hint Resolve x6_from_slice_sh : sh.

Lemma v6_finish_sh k s h :
  Ipv6Slice.finish (sh k s) (sh k h) = rmap (sh_v6 k) (Ipv6Slice.finish s h).
Proof. unfold Ipv6Slice.finish. steps. Qed.
#[export] Hint Resolve v6_finish_sh : sh.

Lemma v6_from_slice_sh k s :
  Ipv6Slice.from_slice (sh k s) = rmap (sh_v6 k) (Ipv6Slice.from_slice s).
Proof. unfold Ipv6Slice.from_slice. steps. Qed.

#[export] Hint Resolve v6_from_slice_sh : sh.

Lemma udp_from_slice_sh k s : UdpSlice.from_slice (sh k s) = rmap (sh k) (UdpSlice.from_slice s).
Proof. unfold UdpSlice.from_slice, UdpSlice.header_from_slice. steps. Qed.

Definition sh_tcp k (r : N * slice) : N * slice := (fst r, sh k (snd r)).
Lemma tcp_from_slice_sh k s : TcpSlice.from_slice (sh k s) = rmap (sh_tcp k) (TcpSlice.from_slice s).
Proof. unfold TcpSlice.from_slice. steps. Qed.

Lemma icmp4_from_slice_sh k s : Icmpv4Slice.from_slice (sh k s) = rmap (sh k) (Icmpv4Slice.from_slice s).
Proof. unfold Icmpv4Slice.from_slice. steps. Qed.

Lemma icmp6_from_slice_sh k s : Icmpv6Slice.from_slice (sh k s) = rmap (sh k) (Icmpv6Slice.from_slice s).
Proof. unfold Icmpv6Slice.from_slice. steps. Qed.
#[export] Hint Resolve udp_from_slice_sh tcp_from_slice_sh icmp4_from_slice_sh icmp6_from_slice_sh : sh.

(* ---- the cursor ------------------------------------------------------------ *)
(* Moving the input by k moves every stored slice by k; starting the cursor j later moves the
   layer_start_offset of every length error by j; the link layer, which the loop never looks at,
   goes through an arbitrary map. *)
Definition rmapE {A B} (fe : slice_error -> slice_error) (f : A -> B) (r : res A) : res B :=
  match r with Ok a => Ok (f a) | Err e => Err (fe e) | Bug b => Bug b end.

Definition mv_pkt k (fl : option link_slice -> option link_slice) (p : sliced_packet) : sliced_packet :=
  mkSliced (fl (sp_link p)) (map (sh_lext k) (sp_exts p)) (option_map (sh_net k) (sp_net p))
           (option_map (sh_tr k) (sp_transport p)).
Definition mv_cur j k fl (c : cursor) : cursor :=
  mkCursor (c_offset c + j) (c_src c) (mv_pkt k fl (c_result c)).
Notation mv_res j k fl := (rmapE (shift_err j) (mv_pkt k fl)).

Lemma bind_mv {A B C D} fe (fa : A -> C) (fb : B -> D) r' (r : res A) (g : C -> res D) (f : A -> res B) :
  r' = rmapE fe fa r -> (forall a, g (fa a) = rmapE fe fb (f a)) -> bind r' g = rmapE fe fb (bind r f).
Proof. intros -> H. destruct r; [apply H|reflexivity|reflexivity]. Qed.

(* a stage that cannot fail is the same on both sides *)
Lemma bind_noerr {A B D} fe (fb : B -> D) (r : res A) (g : A -> res D) (f : A -> res B) :
  (forall e, r <> Err e) -> (forall a, g a = rmapE fe fb (f a)) -> bind r g = rmapE fe fb (bind r f).
Proof. intros N H. destruct r as [a|e|b]; [apply H|destruct (N e eq_refl)|reflexivity]. Qed.

Lemma add_offset_shift k o1 o2 l :
  o1 = o2 + k -> le_add_offset l o1 = le_add_offset (le_add_offset l o2) k.
Proof. intros ->. unfold le_add_offset. cbn. f_equal. lia. Qed.

(* a decoder stage under the cursor's offset *)
Lemma stage_mv {A B} j o (fa : A -> B) (r : res A) :
  map_len_err (fun e => le_add_offset e (o + j)) (rmap fa r) =
  rmapE (shift_err j) fa (map_len_err (fun e => le_add_offset e o) r).
Proof.
  destruct r as [a|[l|c]|b]; cbn; try reflexivity.
  f_equal. f_equal. now apply add_offset_shift.
Qed.

Lemma tr_fix_mv j k fl c l : tr_fix (mv_cur j k fl c) l = le_add_offset (tr_fix c l) j.
Proof.
  unfold tr_fix, le_add_offset, le_set_src. cbn. destruct (le_src l); cbn; f_equal; lia.
Qed.

Lemma tr_stage_mv {A B} j k fl c (fa : A -> B) (r : res A) :
  map_len_err (tr_fix (mv_cur j k fl c)) (rmap fa r) = rmapE (shift_err j) fa (map_len_err (tr_fix c) r).
Proof. destruct r as [a|[l|e]|b]; cbn [rmap map_len_err rmapE shift_err]; try reflexivity. now rewrite tr_fix_mv. Qed.

Lemma transport_dispatch_mv j k fl c p :
  transport_dispatch (mv_cur j k fl c) (sh_ipp k p) = mv_res j k fl (transport_dispatch c p).
Proof.
  unfold transport_dispatch, slice_icmp4, slice_udp, slice_tcp, slice_icmp6.
  cbn [sh_ipp ipp_fragmented ipp_number ipp_slice].
  destruct (ipp_fragmented p); [reflexivity|].
  destruct (ipp_number p =? IPN_ICMP).
  { rewrite icmp4_from_slice_sh, tr_stage_mv. eapply bind_mv; [reflexivity|reflexivity]. }
  destruct (ipp_number p =? IPN_UDP).
  { rewrite udp_from_slice_sh, tr_stage_mv. eapply bind_mv; [reflexivity|reflexivity]. }
  destruct (ipp_number p =? IPN_TCP).
  { rewrite tcp_from_slice_sh, tr_stage_mv. eapply bind_mv; [reflexivity|reflexivity]. }
  destruct (ipp_number p =? IPN_ICMPV6).
  { rewrite icmp6_from_slice_sh, tr_stage_mv. eapply bind_mv; [reflexivity|reflexivity]. }
  reflexivity.
Qed.

Lemma ptr_diff_sh k p s : ptr_diff (sh k p) (sh k s) = ptr_diff p s.
Proof. apply subN_add_cancel. Qed.

Lemma set_net_mv j k fl c o src n :
  set_net (mv_cur j k fl c) (o + j) src (sh_net k n) = mv_cur j k fl (set_net c o src n).
Proof. reflexivity. Qed.

Lemma slice_arp_mv j k fl c s :
  slice_arp (mv_cur j k fl c) (sh k s) = mv_res j k fl (slice_arp c s).
Proof.
  unfold slice_arp. rewrite arp_from_slice_sh. cbn [mv_cur c_offset]. rewrite stage_mv.
  eapply bind_mv; [reflexivity|reflexivity].
Qed.

(* behind any IP slice: the network layer is recorded at the payload's distance from the start,
   then the transport layer is cut *)
Lemma ip_tail_mv j k fl c s p n :
  (let* d := ptr_diff (sh k (ipp_slice p)) (sh k s) in
   transport_dispatch (set_net (mv_cur j k fl c) (c_offset c + j + d) (ipp_src p) (sh_net k n)) (sh_ipp k p)) =
  mv_res j k fl
    (let* d := ptr_diff (ipp_slice p) s in transport_dispatch (set_net c (c_offset c + d) (ipp_src p) n) p).
Proof.
  rewrite ptr_diff_sh. apply bind_noerr.
  - unfold ptr_diff, subN. destruct (_ <=? _); discriminate.
  - intros d. replace (c_offset c + j + d) with (c_offset c + d + j) by lia.
    rewrite set_net_mv. apply transport_dispatch_mv.
Qed.

Lemma slice_ipv4_mv j k fl c s :
  slice_ipv4 (mv_cur j k fl c) (sh k s) = mv_res j k fl (slice_ipv4 c s).
Proof.
  unfold slice_ipv4. rewrite v4_from_slice_sh. cbn [mv_cur c_offset]. rewrite stage_mv.
  eapply bind_mv; [reflexivity|]. intros ip. exact (ip_tail_mv j k fl c s (v4_payload ip) (NtIpv4 ip)).
Qed.

Lemma slice_ipv6_mv j k fl c s :
  slice_ipv6 (mv_cur j k fl c) (sh k s) = mv_res j k fl (slice_ipv6 c s).
Proof.
  unfold slice_ipv6. rewrite v6_from_slice_sh. cbn [mv_cur c_offset]. rewrite stage_mv.
  eapply bind_mv; [reflexivity|]. intros ip. exact (ip_tail_mv j k fl c s (v6_payload ip) (NtIpv6 ip)).
Qed.

Lemma push_ext_mv j k fl c o src x :
  push_ext (mv_cur j k fl c) (o + j) src (sh_lext k x) = rmap (mv_cur j k fl) (push_ext c o src x).
Proof.
  unfold push_ext. cbn [mv_cur c_result mv_pkt sp_exts]. rewrite len_map.
  destruct (len (sp_exts (c_result c)) <? LINK_EXTS_CAP); [|reflexivity].
  cbn [rmap]. unfold mv_cur, mv_pkt. cbn. now rewrite map_app.
Qed.

Ltac noerr_tac :=
  repeat (match goal with |- context [match ?x with _ => _ end] => destruct x end; cbn [bind]);
  discriminate.

Lemma vlan_payload_noerr s e : SingleVlanSlice.payload s <> Err e.
Proof.
  unfold SingleVlanSlice.payload, SingleVlanSlice.ether_type, SingleVlanSlice.payload_slice,
    rd16, rdU, subN, subU. noerr_tac.
Qed.

Lemma macsec_hl_noerr h e : Macsec.header_len h <> Err e.
Proof.
  unfold Macsec.header_len, Macsec.sci_present, Macsec.is_unmodified, Macsec.tci_an_raw, rdU.
  noerr_tac.
Qed.

Lemma macsec_sl_noerr h e : Macsec.short_len h <> Err e.
Proof. unfold Macsec.short_len, rdU. noerr_tac. Qed.

Lemma loop_mv j k fl fuel : forall c ep,
  slice_ether_type_loop fuel (mv_cur j k fl c) (sh_ep k ep) = mv_res j k fl (slice_ether_type_loop fuel c ep).
Proof.
  induction fuel as [|f IH]; intros c ep; [reflexivity|].
  cbn [slice_ether_type_loop]. cbn [sh_ep ep_ether_type ep_slice].
  change (c_src (mv_cur j k fl c)) with (c_src c).
  change (sp_exts (c_result (mv_cur j k fl c))) with (map (sh_lext k) (sp_exts (c_result c))).
  rewrite len_map.
  change (c_result (mv_cur j k fl c)) with (mv_pkt k fl (c_result c)).
  destruct (is_vlan_type (ep_ether_type ep)).
  { destruct (LINK_EXTS_CAP <=? len (sp_exts (c_result c))); [reflexivity|].
    rewrite vlan_from_slice_sh. cbn [mv_cur c_offset]. rewrite stage_mv.
    eapply bind_mv; [reflexivity|]. intros vlan. cbv beta.
    rewrite vlan_payload_sh.
    destruct (SingleVlanSlice.payload vlan) as [vp|e|?] eqn:Ep; cbn [rmap bind rmapE];
      [|destruct (vlan_payload_noerr _ _ Ep)|reflexivity].
    replace (c_offset c + j + SingleVlanSlice.header_len) with (c_offset c + SingleVlanSlice.header_len + j) by lia.
    rewrite (push_ext_mv j k fl c _ _ (LeVlan vlan)).
    destruct (push_ext c _ _ (LeVlan vlan)) as [c'|e|?] eqn:Ec; cbn [rmap bind rmapE]; [apply IH| |reflexivity].
    unfold push_ext in Ec. destruct (_ <? _); discriminate. }
  destruct (ep_ether_type ep =? ET_MACSEC).
  { destruct (LINK_EXTS_CAP <=? len (sp_exts (c_result c))); [reflexivity|].
    rewrite macsec_from_slice_sh. cbn [mv_cur c_offset]. rewrite stage_mv.
    eapply bind_mv; [reflexivity|]. intros m. cbv beta.
    change (ms_header (sh_ms k m)) with (sh k (ms_header m)).
    rewrite macsec_hl_sh, macsec_sl_sh.
    apply bind_noerr; [intros e; apply macsec_hl_noerr|]. intros hl.
    apply bind_noerr; [intros e; apply macsec_sl_noerr|]. intros sl.
    replace (c_offset c + j + hl) with (c_offset c + hl + j) by lia.
    rewrite (push_ext_mv j k fl c _ _ (LeMacsec m)).
    destruct (push_ext c _ _ (LeMacsec m)) as [c'|e|?] eqn:Ec; cbn [rmap bind rmapE]; [| |reflexivity].
    - change (ms_payload (sh_ms k m)) with (sh_mp k (ms_payload m)).
      destruct (ms_payload m) as [e|s]; cbn [sh_mp]; [apply IH|reflexivity].
    - unfold push_ext in Ec. destruct (_ <? _); discriminate. }
  destruct (ep_ether_type ep =? ET_ARP); [apply slice_arp_mv|].
  destruct (ep_ether_type ep =? ET_IPV4); [apply slice_ipv4_mv|].
  destruct (ep_ether_type ep =? ET_IPV6); [apply slice_ipv6_mv|].
  reflexivity.
Qed.

(* ---- views ------------------------------------------------------------------ *)
Lemma view_ext_sh k x : view_ext (sh_lext k x) = shift_vext k (view_ext x).
Proof. destruct x as [s|[h [e|s]]]; reflexivity. Qed.

Lemma view_net_sh k n : view_net (sh_net k n) = shift_vnet k (view_net n).
Proof. destruct n as [[h [a|] p]|v|s]; reflexivity. Qed.

Lemma view_tr_sh k t : view_tr (sh_tr k t) = shift_vtr k (view_tr t).
Proof. destruct t; reflexivity. Qed.

Lemma mv_view k fl r : nolink (vres_of (mv_res k k fl r)) = shift_vres k (nolink (vres_of r)).
Proof.
  destruct r as [p|e|b]; cbn; [|reflexivity|reflexivity].
  unfold shift_vpacket, view. cbn. f_equal. f_equal.
  - rewrite !map_map. apply map_ext. intros x. apply view_ext_sh.
  - destruct (sp_net p); cbn; [now rewrite view_net_sh|reflexivity].
  - destruct (sp_transport p); cbn; [now rewrite view_tr_sh|reflexivity].
Qed.

(* ---- the theorem ------------------------------------------------------------ *)
(* the Ethernet II slice of a standalone input with the two type octets present: the whole
   input as header-and-payload slice, the payload 14 octets in *)
Lemma eth2_slice_long bs b : rd bs 13 = Some b ->
  Ethernet2Slice.from_slice_without_fcs (mk_slice bs) = Ok (mk_slice bs).
Proof.
  intros Hb. pose proof (rd_Some_lt _ _ _ Hb) as L.
  unfold Ethernet2Slice.from_slice_without_fcs. change (s_len (mk_slice bs)) with (len bs).
  destruct (len bs <? 14) eqn:E14; [lia|reflexivity].
Qed.

Lemma eth2_slice_short bs : len bs < 14 ->
  Ethernet2Slice.from_slice_without_fcs (mk_slice bs) =
  Err (ELen (mkLenError 14 (len bs) LsSlice LyEthernet2Header 0)).
Proof.
  intros H. unfold Ethernet2Slice.from_slice_without_fcs. change (s_len (mk_slice bs)) with (len bs).
  destruct (len bs <? 14) eqn:E; [reflexivity|lia].
Qed.

Lemma eth2_payload_long bs a b : rd bs 12 = Some a -> rd bs 13 = Some b ->
  Ethernet2Slice.payload (mk_slice bs) =
  Ok (sh_ep 14 (mkEtherPayload (be16 a b) LsSlice (mk_slice (drop 14 bs)))).
Proof.
  intros Ha Hb. pose proof (rd_Some_lt _ _ _ Hb) as L.
  unfold Ethernet2Slice.payload, Ethernet2Slice.ether_type, Ethernet2Slice.payload_slice, rd16, rdU.
  cbn [snd mk_slice]. rewrite Ha. cbn [bind].
  change (12 + 1) with 13. rewrite Hb. cbn [bind].
  unfold subN, subU. change (s_len (mk_slice bs)) with (len bs).
  change (fst (mk_slice bs)) with 0. change (snd (mk_slice bs)) with bs.
  destruct (14 <=? len bs) eqn:E14'; [|lia]. cbn [bind].
  destruct (14 + (len bs - 14) <=? len bs) eqn:E14''; [|lia]. cbn [bind].
  rewrite take_all by (rewrite len_drop; lia). reflexivity.
Qed.

Theorem ethernet_eq_ethertype bs a b :
  rd bs 12 = Some a -> rd bs 13 = Some b ->
  nolink (vres_of (SlicedPacket.from_ethernet bs)) =
  shift_vres 14 (nolink (vres_of (SlicedPacket.from_ether_type (be16 a b) (drop 14 bs)))).
Proof.
  intros Ha Hb.
  unfold SlicedPacket.from_ethernet, SlicedPacket.from_ether_type, slice_ethernet2, slice_ether_type.
  rewrite (eth2_slice_long bs b Hb). cbn [map_len_err bind].
  rewrite (eth2_payload_long bs a b Ha Hb). cbn [bind].
  rewrite <- (mv_view 14 (fun _ => Some (LkEthernet2 (mk_slice bs)))). f_equal. f_equal.
  exact (loop_mv 14 14 _ 5 (set_link new 0 (LkEtherPayload _)) _).
Qed.

Theorem ethernet_short bs :
  len bs < 14 ->
  SlicedPacket.from_ethernet bs = Err (ELen (mkLenError 14 (len bs) LsSlice LyEthernet2Header 0)).
Proof.
  intros H. unfold SlicedPacket.from_ethernet, slice_ethernet2.
  rewrite (eth2_slice_short bs H). reflexivity.
Qed.
