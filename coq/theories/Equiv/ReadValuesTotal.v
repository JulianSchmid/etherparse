(* Every decoder / reader model that the value theorems
   C06_read_value_* mention, collected: none of them returns one of its MODEL failure values on bytes
   (Roundtrip/DecodersTotal.v for the C08 models, Equiv/ReadValues6Total.v for the C15 Ipv6Header models,
   C12 / C16 for Ipv6Extensions).  Qualified names only: the three model families reuse constructor names. *)
From EP Require Import Base.Bytes.
From EP Require Roundtrip.Eth Roundtrip.Vlan Roundtrip.Sll Roundtrip.Macsec Roundtrip.Arp Roundtrip.Ipv4
  Roundtrip.Auth Roundtrip.RawExt Roundtrip.Frag Roundtrip.Tcp Roundtrip.Udp Roundtrip.Icmp4
  Roundtrip.Icmp6 Roundtrip.Exts4 Roundtrip.IpHeaders Roundtrip.DecodersTotal BitFields.Model
  Equiv.ReadValues6Total ExtChain.Model ExtChain.ReadModel IoFault.Model.

Theorem read_value_models_total : forall bs, bytes_ok bs ->
  Roundtrip.DecodersTotal.proper (Roundtrip.Eth.eth_from_slice bs) /\ Roundtrip.DecodersTotal.proper (Roundtrip.Eth.eth_read bs) /\
  Roundtrip.DecodersTotal.proper (Roundtrip.Vlan.vl_from_slice bs) /\ Roundtrip.DecodersTotal.proper (Roundtrip.Vlan.vl_read bs) /\
  Roundtrip.DecodersTotal.proper (Roundtrip.Sll.sll_from_slice bs) /\ Roundtrip.DecodersTotal.proper (Roundtrip.Sll.sll_read bs) /\
  Roundtrip.DecodersTotal.proper (Roundtrip.Macsec.mac_from_slice bs) /\ Roundtrip.DecodersTotal.proper (Roundtrip.Macsec.mac_read bs) /\
  Roundtrip.DecodersTotal.proper (Roundtrip.Arp.arp_from_slice bs) /\ Roundtrip.DecodersTotal.proper (Roundtrip.Arp.arp_read bs) /\
  Roundtrip.DecodersTotal.proper (Roundtrip.Ipv4.ip4_from_slice bs) /\ Roundtrip.DecodersTotal.proper (Roundtrip.Ipv4.ip4_read bs) /\
  Roundtrip.DecodersTotal.proper (Roundtrip.Auth.ah_from_slice bs) /\ Roundtrip.DecodersTotal.proper (Roundtrip.Auth.ah_read bs) /\
  Roundtrip.DecodersTotal.proper (Roundtrip.RawExt.rx_from_slice bs) /\ Roundtrip.DecodersTotal.proper (Roundtrip.RawExt.rx_read bs) /\
  Roundtrip.DecodersTotal.proper (Roundtrip.Frag.frag_from_slice bs) /\ Roundtrip.DecodersTotal.proper (Roundtrip.Frag.frag_read bs) /\
  Roundtrip.DecodersTotal.proper (Roundtrip.Tcp.from_slice bs) /\ Roundtrip.DecodersTotal.proper (Roundtrip.Tcp.read bs) /\
  Roundtrip.DecodersTotal.proper (Roundtrip.Udp.udp_from_slice bs) /\ Roundtrip.DecodersTotal.proper (Roundtrip.Udp.udp_read bs) /\
  Roundtrip.DecodersTotal.proper (Roundtrip.Icmp4.icmp4_from_slice bs) /\ Roundtrip.DecodersTotal.proper (Roundtrip.Icmp4.icmp4_read bs) /\
  Roundtrip.DecodersTotal.proper (Roundtrip.Icmp6.icmp6_from_slice bs) /\ Roundtrip.DecodersTotal.proper (Roundtrip.Icmp6.icmp6_read bs) /\
  (forall start, Roundtrip.DecodersTotal.proper (Roundtrip.Exts4.x4_from_slice start bs) /\
                 Roundtrip.DecodersTotal.proper (Roundtrip.Exts4.x4_read bs start)) /\
  Roundtrip.DecodersTotal.proper (Roundtrip.IpHeaders.iph_from_slice bs) /\ Roundtrip.DecodersTotal.proper (Roundtrip.IpHeaders.iph_read bs) /\
  Equiv.ReadValues6Total.proper6 (BitFields.Model.Ipv6Header_from_slice bs) /\
  Equiv.ReadValues6Total.proper6 (BitFields.Model.Ipv6Header_read bs) /\
  (forall first, Roundtrip.DecodersTotal.x6_proper (ExtChain.Model.from_slice first bs)) /\
  (forall first, Roundtrip.DecodersTotal.qreg
     (fst (ExtChain.ReadModel.read6 false first (IoFault.Model.mk_rstate (ExtChain.ReadModel.cursor bs) None)))).
Proof.
  intros bs Hb.
  destruct (Roundtrip.DecodersTotal.decoders_total_any bs)
    as (E1 & E2 & V1 & V2 & S1 & S2 & M1 & M2 & _ & _ & F1 & F2 & U1 & U2 & I41 & I42 & I61 & I62 & _ & _ & _ & R6 & _).
  destruct (Roundtrip.DecodersTotal.decoders_total_bytes bs Hb)
    as (T1 & T2 & P41 & P42 & A1 & A2 & X1 & X2 & AR1 & AR2 & _ & X4 & X6 & H1 & _ & _ & H4).
  repeat match goal with |- _ /\ _ => split end; try assumption.
  - apply Equiv.ReadValues6Total.ip6_bitfields_from_slice_total, Hb.
  - apply Equiv.ReadValues6Total.ip6_bitfields_read_total, Hb.
Qed.
