(* Equiv/ReadValues.v -- C06 group 3, header VALUES, for TcpHeader, Ipv4Header and
   Ipv6FragmentHeader (C08 models Roundtrip/Tcp.v, Ipv4.v, Frag.v; the other types
   are in ReadValuesLink.v, ReadValuesNet.v, ReadValuesIp.v, ReadValues6.v):
   `read` decodes the fields a second time, independently of
   XHeaderSlice::to_header; the reader and the slice decoder return the same
   header struct and leave the same rest; a slice Len error corresponds to an
   UnexpectedEof of the reader. *)
From EP Require Import Base.Lists.
From EP Require Import Base.Bytes Roundtrip.Common Roundtrip.Tcp Roundtrip.Ipv4 Roundtrip.Frag.
From EP Require Export Equiv.Settle.
From Coq Require Import ZArith Lia ZifyN ZifyBool.

Local Open Scope N_scope.

(* from_slice says Len (data ends) where read says Io(UnexpectedEof) *)
Definition eof_of_len {A} (r : res A) : res A :=
  match r with Err ELen => Err EIo | r => r end.

Lemma split_n (n : nat) : forall bs : bytes, N.of_nat n <= len bs ->
  exists pre t, bs = pre ++ t /\ length pre = n.
Proof.
  intros bs H. exists (firstn n bs), (skipn n bs). split; [symmetry; apply firstn_skipn|].
  rewrite firstn_length. unfold len in H. lia.
Qed.

Lemma split_len (k : N) (bs : bytes) : k <= len bs -> exists pre t, bs = pre ++ t /\ len pre = k.
Proof.
  intros H. destruct (split_n (N.to_nat k) bs) as (pre & t & E & L); [lia|].
  exists pre, t. split; [exact E|]. unfold len. lia.
Qed.

Lemma take_pre {A} (pre t : list A) k : take (len pre + k) (pre ++ t) = pre ++ take k t.
Proof. rewrite take_app_r by lia. f_equal. f_equal. lia. Qed.

Lemma drop_pre {A} (pre t : list A) k : drop (len pre + k) (pre ++ t) = drop k t.
Proof. rewrite drop_app_r by lia. f_equal. lia. Qed.

(* ---- Ipv6FragmentHeader --------------------------------------------------------- *)
Lemma frag_to_header_err s e : frag_to_header s = Err e -> e = EOOB.
Proof.
  unfold frag_to_header.
  destruct s as [|b0 [|b1 [|b2 [|b3 [|b4 [|b5 [|b6 [|b7 t]]]]]]]]; intros H; try discriminate H;
    now injection H as <-.
Qed.

Theorem frag_read_eq_from_slice bs : frag_read bs = eof_of_len (frag_from_slice bs).
Proof.
  unfold frag_read, frag_from_slice, frag_slice_from_slice, read_exact, slice_from.
  destruct (len bs <? 8) eqn:E; [reflexivity|]. apply N.ltb_ge in E.
  is_true (8 <=? len bs).
  destruct (frag_to_header (take 8 bs)) as [h|e] eqn:Eh; [reflexivity|].
  rewrite (frag_to_header_err _ _ Eh). reflexivity.
Qed.

(* ---- TcpHeader -------------------------------------------------------------------- *)
Definition tcp_b12_ok (b : N) : bool :=
  let doff := shr (band b 240) 4 in
  let hl := shr (band b 240) 2 in
  let ol := shl8 (doff - 5) 2 in
  Bool.eqb (hl <? 20) (doff <? 5) && (as_u8 (shr hl 2) =? doff) &&
  ((doff <? 5) || ((hl =? 20 + ol) && (ol <=? 40) && (doff * 4 =? hl) && (as_u8 ol =? ol))).

Lemma tcp_b12_facts b : b < 256 ->
  let doff := shr (band b 240) 4 in
  let hl := shr (band b 240) 2 in
  let ol := shl8 (doff - 5) 2 in
  (hl <? 20) = (doff <? 5) /\ as_u8 (shr hl 2) = doff /\
  (5 <= doff -> hl = 20 + ol /\ ol <= 40 /\ doff * 4 = hl /\ as_u8 ol = ol).
Proof.
  intros Hb. pose proof (sweep256 tcp_b12_ok ltac:(vm_compute; reflexivity) b Hb) as H.
  unfold tcp_b12_ok in H. cbv zeta in *.
  apply andb_prop in H. destruct H as [H H3]. apply andb_prop in H. destruct H as [H1 H2].
  split; [now apply Bool.eqb_prop|]. split; [now apply N.eqb_eq|].
  intros H5. destruct (shr (band b 240) 4 <? 5) eqn:E; [apply N.ltb_lt in E; lia|].
  cbn [orb] in H3. apply andb_prop in H3. destruct H3 as [H3 H7].
  apply andb_prop in H3. destruct H3 as [H3 H6]. apply andb_prop in H3. destruct H3 as [H3 H4].
  repeat split; [now apply N.eqb_eq|now apply N.leb_le|now apply N.eqb_eq|now apply N.eqb_eq].
Qed.

Theorem tcp_read_eq_from_slice bs : bytes_ok bs -> Tcp.read bs = eof_of_len (Tcp.from_slice bs).
Proof.
  intros Hb. unfold Tcp.read, Tcp.from_slice, slice_from_slice, read_exact.
  destruct (len bs <? 20) eqn:E; [reflexivity|]. apply N.ltb_ge in E.
  destruct (split_n 20 bs E) as (pre & t & -> & Hpre).
  do 20 (destruct pre as [|? pre]; [discriminate Hpre|]). destruct pre; [|discriminate Hpre]. clear Hpre.
  set (pre := [n; n0; n1; n2; n3; n4; n5; n6; n7; n8; n9; n10; n11; n12; n13; n14; n15; n16; n17; n18]) in *.
  change (n :: n0 :: n1 :: n2 :: n3 :: n4 :: n5 :: n6 :: n7 :: n8 :: n9 :: n10 :: n11 :: n12 :: n13
            :: n14 :: n15 :: n16 :: n17 :: n18 :: t) with (pre ++ t) in *.
  assert (Lp : len pre = 20) by reflexivity.
  assert (H12 : rd (pre ++ t) 12 = Some n11) by reflexivity. rewrite H12.
  assert (Hb12 : n11 < 256) by (eapply rd_ok; eauto).
  destruct (tcp_b12_facts n11 Hb12) as (F1 & F2 & F3).
  replace (take 20 (pre ++ t)) with pre by reflexivity.
  replace (drop 20 (pre ++ t)) with t by reflexivity.
  unfold pre at 1. cbv iota.
  set (doff := shr (band n11 240) 4) in *. set (hl := shr (band n11 240) 2) in *.
  set (ol := shl8 (doff - 5) 2) in *.
  rewrite F1, F2. destruct (doff <? 5) eqn:E5; [reflexivity|]. apply N.ltb_ge in E5.
  destruct (F3 E5) as (G1 & G2 & G3 & G4).
  rewrite len_app, Lp.
  destruct (0 <? ol) eqn:Eo.
  - apply N.ltb_lt in Eo. is_true (ol <=? 40).
    destruct (len t <? ol) eqn:Et.
    + apply N.ltb_lt in Et. is_true (20 + len t <? hl).
      reflexivity.
    + apply N.ltb_ge in Et. is_false (20 + len t <? hl).
      rewrite G1.
      assert (T : take (20 + ol) (pre ++ t) = pre ++ take ol t)
        by (change (20 + ol) with (len pre + ol); apply take_pre).
      assert (D : drop (20 + ol) (pre ++ t) = drop ol t)
        by (change (20 + ol) with (len pre + ol); apply drop_pre).
      rewrite T. rewrite len_app, Lp, len_take. replace (N.min ol (len t)) with ol by lia.
      unfold to_header, pre at 1. cbn [app].
      change (n :: n0 :: n1 :: n2 :: n3 :: n4 :: n5 :: n6 :: n7 :: n8 :: n9 :: n10 :: n11 :: n12 :: n13
                :: n14 :: n15 :: n16 :: n17 :: n18 :: take ol t) with (pre ++ take ol t).
      fold doff. rewrite G3, G1. unfold slice_range.
      rewrite len_app, Lp, len_take. replace (N.min ol (len t)) with ol by lia.
      replace ((20 <=? 20 + ol) && (20 + ol <=? 20 + ol)) with true
        by (symmetry; apply andb_true_intro; split; apply N.leb_le; lia).
      replace (20 + ol - 20) with ol by lia.
      replace (drop 20 (pre ++ take ol t)) with (take ol t) by reflexivity.
      assert (TT : take ol (take ol t) = take ol t).
      { unfold take. rewrite firstn_firstn. f_equal. lia. }
      rewrite TT. rewrite len_take. replace (N.min ol (len t)) with ol by lia.
      is_false (40 <? ol).
      rewrite G4. unfold slice_from. rewrite !len_app, Lp.
      is_true (20 + ol <=? 20 + len t).
      rewrite D. reflexivity.
  - apply N.ltb_ge in Eo. assert (ol = 0) by lia.
    is_false (20 + len t <? hl).
    rewrite G1, H. change (20 + 0) with (len pre + 0). rewrite take_pre.
    change (take 0 t) with (@nil N). rewrite app_nil_r.
    unfold to_header, pre at 1. fold pre. fold doff. rewrite G3, G1, H.
    unfold slice_range. rewrite Lp. change ((20 <=? 20 + 0) && (20 + 0 <=? 20)) with true. cbv iota.
    change (take (20 + 0 - 20) (drop 20 pre)) with (@nil N).
    change (40 <? len (@nil N)) with false. cbv iota.
    unfold slice_from. rewrite len_app, Lp.
    is_true (20 <=? 20 + len t).
    replace (drop 20 (pre ++ t)) with t by reflexivity. reflexivity.
Qed.

(* ---- Ipv4Header ------------------------------------------------------------------- *)
Definition ip4_b0_ok (b : N) : bool :=
  let ihl := band b 15 in
  let ol := as_u8 ((ihl - 5) * 4) in
  (ihl <? 5) || ((ihl * 4 =? 20 + ol) && (ol <=? 40) && (as_u8 ol =? ol)).

Lemma ip4_b0_facts b : b < 256 ->
  let ihl := band b 15 in
  let ol := as_u8 ((ihl - 5) * 4) in
  5 <= ihl -> ihl * 4 = 20 + ol /\ ol <= 40 /\ as_u8 ol = ol.
Proof.
  intros Hb. pose proof (sweep256 ip4_b0_ok ltac:(vm_compute; reflexivity) b Hb) as H.
  unfold ip4_b0_ok in H. cbv zeta in *. intros H5.
  destruct (band b 15 <? 5) eqn:E; [apply N.ltb_lt in E; lia|]. cbn [orb] in H.
  apply andb_prop in H. destruct H as [H H3]. apply andb_prop in H. destruct H as [H1 H2].
  repeat split; [now apply N.eqb_eq|now apply N.leb_le|now apply N.eqb_eq].
Qed.

(* with the 20 fixed bytes present (shorter inputs: C06_read_cut_fixed_inside) *)
Theorem ip4_read_eq_from_slice bs : bytes_ok bs -> 20 <= len bs ->
  ip4_read bs = eof_of_len (ip4_from_slice bs).
Proof.
  intros Hb E. unfold ip4_read, ip4_from_slice, ip4_slice_from_slice, read_exact.
  is_false (len bs <? 20).
  is_false (len bs <? 1).
  destruct (split_n 20 bs E) as (pre & t & -> & Hpre).
  do 20 (destruct pre as [|? pre]; [discriminate Hpre|]). destruct pre; [|discriminate Hpre]. clear Hpre.
  set (pre := [n; n0; n1; n2; n3; n4; n5; n6; n7; n8; n9; n10; n11; n12; n13; n14; n15; n16; n17; n18]) in *.
  change (n :: n0 :: n1 :: n2 :: n3 :: n4 :: n5 :: n6 :: n7 :: n8 :: n9 :: n10 :: n11 :: n12 :: n13
            :: n14 :: n15 :: n16 :: n17 :: n18 :: t) with (pre ++ t) in *.
  assert (Lp : len pre = 20) by reflexivity.
  assert (H0 : rd (pre ++ t) 0 = Some n) by reflexivity. rewrite H0.
  assert (Hb0 : n < 256) by (eapply rd_ok; eauto).
  pose proof (ip4_b0_facts n Hb0) as F.
  replace (take 1 (pre ++ t)) with [n] by reflexivity.
  set (r1 := drop 1 (pre ++ t)).
  assert (L1 : len r1 = 19 + len t).
  { unfold r1. rewrite len_drop, len_app, Lp. lia. }
  destruct (negb (shr n 4 =? 4)); [reflexivity|].
  rewrite L1. is_false (19 + len t <? 19).
  replace (take 19 r1) with [n0; n1; n2; n3; n4; n5; n6; n7; n8; n9; n10; n11; n12; n13; n14; n15; n16; n17; n18]
    by reflexivity.
  replace (drop 19 r1) with t by reflexivity.
  set (ihl := band n 15) in *. set (ol := as_u8 ((ihl - 5) * 4)) in *.
  destruct (ihl <? 5) eqn:E5; [reflexivity|]. apply N.ltb_ge in E5.
  destruct (F E5) as (G1 & G2 & G4). change (as_u8 ((ihl - 5) * 4)) with ol in G1, G2, G4.
  rewrite len_app, Lp. rewrite G1.
  assert (T : take (20 + ol) (pre ++ t) = pre ++ take ol t)
    by (change (20 + ol) with (len pre + ol); apply take_pre).
  assert (D : drop (20 + ol) (pre ++ t) = drop ol t)
    by (change (20 + ol) with (len pre + ol); apply drop_pre).
  destruct (ol =? 0) eqn:Eo.
  - apply N.eqb_eq in Eo.
    is_false (20 + len t <? 20 + ol).
    rewrite T, Eo. change (take 0 t) with (@nil N). rewrite app_nil_r.
    unfold ip4_to_header, pre at 1.
    change (40 <? len (@nil N)) with false. cbv iota.
    unfold ip4_header_len. cbn [i4_options i4o_len].
    change (as_u8 (len (@nil N))) with 0. change (20 + 0) with 20.
    unfold slice_from. rewrite len_app, Lp.
    is_true (20 <=? 20 + len t).
    replace (drop 20 (pre ++ t)) with t by reflexivity.
    reflexivity.
  - apply N.eqb_neq in Eo. is_true (ol <=? 40).
    destruct (len t <? ol) eqn:Et.
    + apply N.ltb_lt in Et. is_true (20 + len t <? 20 + ol).
      reflexivity.
    + apply N.ltb_ge in Et. is_false (20 + len t <? 20 + ol).
      rewrite T. unfold ip4_to_header, pre at 1. cbn [app].
      rewrite len_take. replace (N.min ol (len t)) with ol by lia.
      is_false (40 <? ol).
      unfold ip4_header_len. cbn [i4_options i4o_len]. rewrite G4.
      unfold slice_from. rewrite len_app, Lp.
      is_true (20 + ol <=? 20 + len t).
      rewrite D. reflexivity.
Qed.
