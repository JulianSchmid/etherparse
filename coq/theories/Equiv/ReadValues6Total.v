(* The C15 field-level models of Ipv6Header::from_slice /
   Ipv6Header::read (BitFields/Model.v), on which C06_read_value_ipv6 is stated, never return one of their
   model failures (OOB, UBRange, Panic, Other) on bytes: the value theorem does not hold "because both
   sides failed the same way". *)
From EP Require Import Base.Bytes BitFields.Model Equiv.ReadValues6 Equiv.Settle.
From Coq Require Import ZArith Lia ZifyN ZifyBool.
Local Open Scope N_scope.

Definition proper6 {A} (r : res A) : Prop :=
  match r with
  | Val _ | Fail ErrLen | Fail ErrContent | Fail ErrIo => True
  | _ => False
  end.

Lemma land15_le b : N.land b 15 <= 15.
Proof. change 15 with (N.ones 4). rewrite N.land_ones. pose proof (N.mod_lt b (2 ^ 4) ltac:(discriminate)). change (N.ones 4) with 15. change (2^4) with 16 in H. lia. Qed.

Lemma flow_label_ok a b c : b < 256 -> c < 256 -> (be32 0 (N.land a 15) b c <=? Ipv6FlowLabel_MAX_U32) = true.
Proof.
  intros Hb Hc. apply N.leb_le. pose proof (land15_le a). unfold be32.
  change Ipv6FlowLabel_MAX_U32 with 1048575. lia.
Qed.

Lemma ip6_bitfields_from_slice_total bs : bytes_ok bs -> proper6 (Ipv6Header_from_slice bs).
Proof.
  intros Hb. unfold Ipv6Header_from_slice, Ipv6HeaderSlice_from_slice.
  destruct (len bs <? 40) eqn:E; [exact I|]. apply N.ltb_ge in E.
  destruct (split40 bs E) as (pre & t & -> & Hpre).
  do 40 (destruct pre as [|? pre]; [discriminate Hpre|]). destruct pre; [|discriminate Hpre]. clear Hpre.
  assert (B : n1 < 256 /\ n2 < 256).
  { apply bytes_ok_app in Hb. destruct Hb as [Hb _].
    repeat (apply bytes_ok_cons in Hb; let x := fresh in destruct Hb as [x Hb]). split; assumption. }
  destruct B as [B1 B2].
  unfold V6S_to_header, V6S_traffic_class, V6S_flow_label, V6S_payload_length, V6S_next_header,
    V6S_hop_limit, V6S_source, V6S_destination, getu, getu_n.
  unfold take, drop, rd.
  change (N.to_nat 0) with 0%nat. change (N.to_nat 1) with 1%nat. change (N.to_nat 2) with 2%nat.
  change (N.to_nat 3) with 3%nat. change (N.to_nat 4) with 4%nat. change (N.to_nat 5) with 5%nat.
  change (N.to_nat 6) with 6%nat. change (N.to_nat 7) with 7%nat. change (N.to_nat 8) with 8%nat.
  change (N.to_nat 16) with 16%nat. change (N.to_nat 24) with 24%nat. change (N.to_nat 40) with 40%nat.
  cbn [app firstn skipn nth_error bind].
  destruct (negb (N.shiftr n 4 =? 6)); [exact I|]. cbn [bind firstn skipn nth_error].
  unfold Ipv6FlowLabel_new_unchecked. rewrite (flow_label_ok n0 n1 n2 B1 B2). cbn [bind].
  unfold len. cbn [length]. exact I.
Qed.

Lemma ip6_bitfields_read_total bs : bytes_ok bs -> proper6 (Ipv6Header_read bs).
Proof.
  intros Hb. destruct (N.lt_ge_cases (len bs) 40) as [L|L].
  - unfold Ipv6Header_read. destruct bs as [|v r]; [exact I|].
    destruct (negb (N.shiftr v 4 =? 6)); [exact I|].
    unfold Ipv6Header_read_without_version. rewrite len_cons in L.
    is_true (len r <? 39). exact I.
  - rewrite (ip6_read_eq_from_slice bs Hb L).
    pose proof (ip6_bitfields_from_slice_total bs Hb) as P.
    destruct (Ipv6Header_from_slice bs) as [h|[]]; try contradiction; exact I.
Qed.
