(* The model of `Ipv6Slice::from_slice_lax` (Parse/Ipv6SliceLax.v), one more copy of the IP boundary.

     * v6lax_nobug, v6lax_wf            never Bug on any slice value; the three stored windows are
                                        from_raw_parts-windows of the input, the invariant of
                                        Ipv6Slice (wf_ipv6) holds, hence every accessor / the
                                        extension iterator of the result is Bug-free (C01 / C02 shape)
     * v6lax_eq_lax6                    the copy agrees with LaxIpv6Slice::from_slice: same windows and
                                        numbers when the lax sibling has no stop error, otherwise the
                                        stop error as Err (the strict tail), first-header errors equal
     * v6lax_eq_lax_ip_arm              ... and with the IPv6 arm of LaxIpSlice::from_slice
     * v6lax_vs_strict                  extends Ipv6Slice::from_slice; differs exactly by the
                                        payload-length fallback (C05 (a) / (b) / (c) shape)
     * v6lax_len_source                 C05 (d) through the lax sibling: the slice is the length source
                                        and the payload ends at the slice end when more was announced
                                        than present *)
From EP Require Import Base.Bytes Parse.Types Parse.Slices Parse.Repr Parse.Access Parse.AccessProofs
  Parse.CtorsTotal Parse.LaxSlices Parse.LaxAccess Parse.LaxAccessProofs Parse.LaxProofs Parse.LaxFacts
  Equiv.Model Equiv.Proofs Equiv.ShiftProofs Parse.Ipv6SliceLax.
From Coq Require Import ZArith Lia ZifyN ZifyBool List.
Import ListNotations.

Local Open Scope N_scope.

(* ---- the function is header ; payload selection ; STRICT tail --------------------------- *)
(* the payload selection of Ipv6Slice::from_slice_lax *)
Definition v6lax_select (s : slice) (pl : N) : res (slice * len_source) :=
  if (0 =? pl) && (40 <? s_len s) then
    let* n := subN (s_len s) 40 in
    let* p := subU s 40 n in
    Ok (p, LsSlice)
  else
    if s_len s <? 40 + pl then
      let* n := subN (s_len s) 40 in
      let* p := subU s 40 n in
      Ok (p, LsSlice)
    else
      let* p := subU s 40 pl in
      Ok (p, LsIpv6HeaderPayloadLen).

Lemma v6lax_unfold s :
  Ipv6SliceLax.from_slice_lax s =
  (let* header := Ipv6HeaderSlice.from_slice s in
   let* pl := Ipv6HeaderSlice.payload_length header in
   let* hp := v6lax_select s pl in
   strict_v6_tail header (fst hp) (snd hp)).
Proof.
  unfold Ipv6SliceLax.from_slice_lax, v6lax_select, strict_v6_tail.
  destruct (Ipv6HeaderSlice.from_slice s) as [h|e|b]; cbn [bind]; [|reflexivity|reflexivity].
  destruct (Ipv6HeaderSlice.payload_length h) as [pl|e|b]; cbn [bind]; [|reflexivity|reflexivity].
  match goal with |- bind ?X _ = bind ?X _ => destruct X as [[hp src]|e|b] end;
    cbn [bind fst snd]; reflexivity.
Qed.

(* on a slice that holds the 40 header bytes the selection succeeds: a window of s behind
   the header, with the source the function reports *)
Lemma v6lax_select_ok s pl :
  40 <= s_len s ->
  exists p, sub_of p s /\
    v6lax_select s pl =
      Ok (p, if ((0 =? pl) && (40 <? s_len s)) || (s_len s <? 40 + pl)
             then LsSlice else LsIpv6HeaderPayloadLen) /\
    subU s 40 (if ((0 =? pl) && (40 <? s_len s)) || (s_len s <? 40 + pl)
               then s_len s - 40 else pl) = Ok p.
Proof.
  intros L. unfold v6lax_select.
  destruct ((0 =? pl) && (40 <? s_len s)) eqn:Z; cbn [orb].
  - rewrite (subN_ok (s_len s) 40) by lia. cbn [bind].
    destruct (subU_ok s 40 (s_len s - 40)) as (p & E & _ & _); [lia|]. rewrite E. cbn [bind].
    exists p. split; [now exists 40, (s_len s - 40)|]. split; reflexivity.
  - destruct (s_len s <? 40 + pl) eqn:C.
    + rewrite (subN_ok (s_len s) 40) by lia. cbn [bind].
      destruct (subU_ok s 40 (s_len s - 40)) as (p & E & _ & _); [lia|]. rewrite E. cbn [bind].
      exists p. split; [now exists 40, (s_len s - 40)|]. split; reflexivity.
    + destruct (subU_ok s 40 pl) as (p & E & _ & _); [lia|]. rewrite E. cbn [bind].
      exists p. split; [now exists 40, pl|]. split; reflexivity.
Qed.

Lemma v6_header_facts s h :
  Ipv6HeaderSlice.from_slice s = Ok h ->
  s_len h = 40 /\ 40 <= s_len s /\ sub_of h s /\
  (exists pl, Ipv6HeaderSlice.payload_length h = Ok pl) /\
  (exists nh, Ipv6HeaderSlice.next_header h = Ok nh).
Proof.
  intros E. pose proof (ipv6h_wf _ _ E) as (W & S). unfold wf_ipv6h in W.
  split; [exact W|]. split.
  { destruct S as (k & n & Es). apply LaxProofs.subU_inv in Es. destruct Es as (Lk & ->).
    unfold s_len in W |- *. cbn [snd] in W. rewrite len_take, len_drop in W. lia. }
  split; [exact S|]. split.
  - unfold Ipv6HeaderSlice.payload_length. apply AccessProofs.rd16_ok. lia.
  - unfold Ipv6HeaderSlice.next_header. apply AccessProofs.rdU_ok. lia.
Qed.

(* ---- C01 / C02 shape: total, windows inside, invariant, accessors ------------------------ *)
Lemma strict_v6_tail_nobug header hp src : 40 <= s_len header -> nobug (strict_v6_tail header hp src).
Proof.
  intros L. unfold strict_v6_tail, Ipv6HeaderSlice.next_header. nb. apply nobug_bind.
  - pose proof (nb_exts x hp) as H.
    destruct (Ipv6ExtensionsSlice.from_slice x hp) as [a|[e|c]|b]; try nbfin. exact H.
  - intros ((exts, pn), payload) _. apply nobug_Ok.
Qed.

Theorem v6lax_nobug s : nobug (Ipv6SliceLax.from_slice_lax s).
Proof.
  rewrite v6lax_unfold. apply nobug_bind; [apply nb_ipv6h|]. intros h Eh.
  destruct (v6_header_facts _ _ Eh) as (Lh & Ls & _ & (pl & Epl) & _). rewrite Epl. cbn [bind].
  destruct (v6lax_select_ok s pl Ls) as (p & _ & -> & _). cbn [bind fst snd].
  apply strict_v6_tail_nobug. lia.
Qed.

Lemma strict_v6_tail_wf header hp src v :
  strict_v6_tail header hp src = Ok v ->
  v6_header v = header /\ exts_good (v6_exts v) /\ ipp_src (v6_payload v) = src /\
  sub_of (x6_slice (v6_exts v)) hp /\ sub_of (ipp_slice (v6_payload v)) hp.
Proof.
  unfold strict_v6_tail. intros H. binv H nh Enh. binv H x Ex. destruct x as ((exts, pn), payload).
  injection H as <-. cbn.
  assert (Ex' : Ipv6ExtensionsSlice.from_slice nh hp = Ok (exts, pn, payload)).
  { destruct (Ipv6ExtensionsSlice.from_slice nh hp) as [a|[e|c]|b]; try discriminate; exact Ex. }
  apply exts_good_from_slice in Ex'. destruct Ex' as (G & S1 & S2). tauto.
Qed.

Theorem v6lax_wf s v :
  Ipv6SliceLax.from_slice_lax s = Ok v -> wf_ipv6 v /\ ipv6_in v s.
Proof.
  rewrite v6lax_unfold. intros H. binv H h Eh. binv H pl Epl. binv H hp Ehp.
  destruct (v6_header_facts _ _ Eh) as (Lh & Ls & Sh & _ & _).
  destruct (v6lax_select_ok s pl Ls) as (p & Sp & E & _). rewrite E in Ehp. injection Ehp as <-.
  cbn [fst snd] in H. apply strict_v6_tail_wf in H. destruct H as (E1 & G & _ & S1 & S2).
  unfold wf_ipv6, ipv6_in, wf_ipv6h. rewrite E1.
  pose proof (sub_of_trans _ _ _ S1 Sp). pose proof (sub_of_trans _ _ _ S2 Sp). tauto.
Qed.

Theorem v6lax_accessors s v :
  Ipv6SliceLax.from_slice_lax s = Ok v -> bytes_ok (snd s) ->
  Forall nobug (Ipv6SliceA.accessors v) /\ Forall (win_ok s) (Ipv6SliceA.windows v).
Proof.
  intros H Hok. apply v6lax_wf in H. destruct H as (W & _ & Sx & _). split.
  - apply ipv6_accessors_ok; [exact W|]. eapply sub_of_bytes_ok; eauto.
  - eapply win_ok_mono; [exact Sx|now apply ipv6_windows_ok].
Qed.

(* ---- the copies agree: against LaxIpv6Slice::from_slice ---------------------------------- *)
(* what Ipv6Slice::from_slice_lax answers, read off the answer of LaxIpv6Slice::from_slice:
   no stop error -> the same header / extension window / payload record (the `incomplete`
   flag has no place in the strict result type); a stop error (a fault in the extension
   chain) -> that error as Err, the layer tag dropped; a first-header Err -> the same Err *)
Definition v6lax_of_lax6 (r : res (lax_ipv6_slice * option stop_error)) : res ipv6_slice :=
  match r with
  | Ok (lv, None) => Ok (strict_v6 lv)
  | Ok (_, Some (e, _)) => Err e
  | Err e => Err e
  | Bug b => Bug b
  end.

Lemma v6_tail_rel header hp src inc :
  40 <= s_len header ->
  match LaxIpv6Slice.finish header hp src inc with
  | Bug _ => True
  | r => strict_v6_tail header hp src = v6lax_of_lax6 r
  end.
Proof.
  intros L. unfold strict_v6_tail, LaxIpv6Slice.finish, Ipv6HeaderSlice.next_header.
  destruct (AccessProofs.rdU_ok header 6) as (nh & Enh); [lia|]. rewrite Enh. cbn [bind].
  pose proof (exts_sim nh hp) as X. pose proof (nb_exts nh hp) as NB.
  destruct (Ipv6ExtensionsSlice.from_slice nh hp) as [[[x n] r]|e|b].
  - rewrite X. cbn [bind v6lax_of_lax6]. reflexivity.
  - destruct (LaxIpv6Exts.from_slice_lax nh hp) as [[[[x n] r] st]|e0|b0]; cbn [bind].
    + destruct X as (ly & -> & _). destruct e as [l|c]; cbn [bind v6lax_of_lax6]; reflexivity.
    + destruct X.
    + exact I.
  - exfalso. now apply (NB b).
Qed.

Lemma v6lax_lax6_rel s :
  match LaxIpv6Slice.from_slice s with
  | Bug _ => True
  | r => Ipv6SliceLax.from_slice_lax s = v6lax_of_lax6 r
  end.
Proof.
  rewrite v6lax_unfold. unfold LaxIpv6Slice.from_slice.
  destruct (Ipv6HeaderSlice.from_slice s) as [h|e|b] eqn:Eh; cbn [bind v6lax_of_lax6];
    [|reflexivity|exact I].
  destruct (v6_header_facts _ _ Eh) as (Lh & Ls & _ & (pl & Epl) & _). rewrite Epl. cbn [bind].
  unfold v6lax_select.
  assert (T : forall p src inc,
    match (let '(header_payload, src0, incomplete) := (p, src, inc) in
           LaxIpv6Slice.finish h header_payload src0 incomplete) with
    | Bug _ => True
    | r => strict_v6_tail h (fst (p, src)) (snd (p, src)) = v6lax_of_lax6 r
    end).
  { intros p src inc. cbn [fst snd]. apply v6_tail_rel. lia. }
  destruct ((0 =? pl) && (40 <? s_len s)).
  - rewrite (subN_ok (s_len s) 40) by lia. cbn [bind].
    destruct (subU_ok s 40 (s_len s - 40)) as (p & E & _ & _); [lia|]. rewrite E. cbn [bind]. apply T.
  - destruct (s_len s <? 40 + pl) eqn:C.
    + rewrite (subN_ok (s_len s) 40) by lia. cbn [bind].
      destruct (subU_ok s 40 (s_len s - 40)) as (p & E & _ & _); [lia|]. rewrite E. cbn [bind]. apply T.
    + destruct (subU_ok s 40 pl) as (p & E & _ & _); [lia|]. rewrite E. cbn [bind]. apply T.
Qed.

Theorem v6lax_eq_lax6 s :
  nobug (LaxIpv6Slice.from_slice s) ->
  Ipv6SliceLax.from_slice_lax s = v6lax_of_lax6 (LaxIpv6Slice.from_slice s).
Proof.
  intros NB. pose proof (v6lax_lax6_rel s) as X.
  destruct (LaxIpv6Slice.from_slice s) as [r|e|b]; [exact X|exact X|exfalso; now apply (NB b)].
Qed.

(* LaxIpv6Slice::from_slice never returns Bug, on any slice value *)
Lemma nb_lax_walk fuel start_len : forall rest nh fr,
  (N.to_nat (s_len rest) < fuel)%nat -> s_len rest <= start_len ->
  nobug (LaxIpv6Exts.walk fuel start_len rest nh fr).
Proof.
  induction fuel as [|f IH]; intros rest nh fr Hf Hs; [lia|].
  cbn [LaxIpv6Exts.walk].
  destruct (nh =? IPN_HOP_BY_HOP); [apply nobug_Ok|].
  destruct ((nh =? IPN_DEST_OPTIONS) || (nh =? IPN_ROUTE)).
  { pose proof (nb_raw rest) as NR.
    destruct (Ipv6RawExtHeaderSlice.from_slice rest) as [sl|[l|c]|b] eqn:E.
    - pose proof (raw_wf _ _ E) as ((b & _ & Lb) & S). pose proof (sub_of_len _ _ S).
      unfold Ipv6RawExtHeaderSlice.next_header. nb. apply IH; lia.
    - nb.
    - destruct (raw_ext_shape _ _ E) as (l & X & _). discriminate.
    - exfalso. now apply (NR b). }
  destruct (nh =? IPN_FRAG).
  { pose proof (nb_frag rest) as NR.
    destruct (Ipv6FragmentHeaderSlice.from_slice rest) as [sl|[l|c]|b] eqn:E.
    - pose proof (frag_wf _ _ E) as (W & S). unfold wf_frag in W. pose proof (sub_of_len _ _ S).
      unfold Ipv6FragmentHeaderSlice.next_header, Ipv6FragmentHeaderSlice.is_fragmenting_payload,
        Ipv6FragmentHeaderSlice.more_fragments, Ipv6FragmentHeaderSlice.fragment_offset.
      nb. apply IH; lia.
    - nb.
    - exfalso. revert E. unfold Ipv6FragmentHeaderSlice.from_slice, lerr.
      destruct (s_len rest <? 8); [discriminate|]. intros E.
      destruct (subU rest 0 8) as [x|e'|b'] eqn:E2; try discriminate.
      exact (subU_not_err _ _ _ _ E2).
    - exfalso. now apply (NR b). }
  destruct (nh =? IPN_AUTH).
  { pose proof (nb_ah rest) as NR.
    destruct (IpAuthHeaderSlice.from_slice rest) as [sl|[l|c]|b] eqn:E.
    - pose proof (ah_wf _ _ E) as ((p & _ & P1 & Lp) & S). pose proof (sub_of_len _ _ S).
      unfold IpAuthHeaderSlice.next_header. nb. apply IH; lia.
    - nb.
    - apply nobug_Ok.
    - exfalso. now apply (NR b). }
  apply nobug_Ok.
Qed.

Lemma nb_lax_exts nh s : nobug (LaxIpv6Exts.from_slice_lax nh s).
Proof.
  unfold LaxIpv6Exts.from_slice_lax.
  assert (K : forall rest0 nh0, s_len rest0 <= s_len s ->
    nobug (let* w := LaxIpv6Exts.walk (S (length (snd s))) (s_len s) rest0 nh0 false in
           let '(rest, next_header, fragmented, error) := w in
           let* used := subN (s_len s) (s_len rest) in
           let* sl := (if used <=? s_len s then Ok (fst s, take used (snd s)) else Bug SITE_INDEX) in
           Ok (mkIpv6Exts (if negb (s_len rest =? s_len s) then Some nh else None) fragmented sl,
               next_header, rest, error))).
  { intros rest0 nh0 L0. apply nobug_bind.
    - apply nb_lax_walk; [rewrite s_len_length; lia|exact L0].
    - intros (((restf, nxf), frf), er) Ew.
      destruct (lax_walk_collect _ _ _ _ _ _ _ _ _ Ew) as (A1 & _). nb. }
  destruct (IPN_HOP_BY_HOP =? nh) eqn:Eh.
  - pose proof (nb_raw s) as NR.
    destruct (Ipv6RawExtHeaderSlice.from_slice s) as [sl|[l|c]|b] eqn:E; cbn [bind].
    + pose proof (raw_wf _ _ E) as ((b & _ & Lb) & S). pose proof (sub_of_len _ _ S).
      destruct (s_len sl <=? s_len s) eqn:El; [|lia]. cbn [bind].
      unfold Ipv6RawExtHeaderSlice.next_header.
      destruct (AccessProofs.rdU_ok sl 0) as (x & Ex); [lia|]. rewrite Ex. cbn [bind].
      apply K. unfold s_len at 1. cbn [snd]. rewrite len_drop. unfold s_len. lia.
    + nb.
    + destruct (raw_ext_shape _ _ E) as (l & X & _). discriminate.
    + exfalso. now apply (NR b).
  - cbn [bind]. apply K. lia.
Qed.

Lemma nb_lax6 s : nobug (LaxIpv6Slice.from_slice s).
Proof.
  unfold LaxIpv6Slice.from_slice. apply nobug_bind; [apply nb_ipv6h|]. intros h Eh.
  pose proof (ipv6h_wf _ _ Eh) as (W & S). unfold wf_ipv6h in W. pose proof (sub_of_len _ _ S).
  unfold Ipv6HeaderSlice.payload_length.
  destruct (AccessProofs.rd16_ok h 4) as (pl & Epl); [lia|]. rewrite Epl. cbn [bind].
  assert (K : forall t : slice * len_source * bool,
            nobug (let '(header_payload, src, incomplete) := t in
                   LaxIpv6Slice.finish h header_payload src incomplete)).
  { intros ((hp, src), inc). unfold LaxIpv6Slice.finish, Ipv6HeaderSlice.next_header. nb.
    apply nobug_bind; [apply nb_lax_exts|]. intros (((x0, n), r), st) _. apply nobug_Ok. }
  cbv zeta. nb; apply K.
Qed.

Theorem v6lax_eq_lax6_octets s :
  bytes_ok (snd s) ->
  Ipv6SliceLax.from_slice_lax s = v6lax_of_lax6 (LaxIpv6Slice.from_slice s).
Proof. intros _. apply v6lax_eq_lax6, nb_lax6. Qed.

Theorem v6lax_ok_iff s v :
  Ipv6SliceLax.from_slice_lax s = Ok v <->
  exists lv, LaxIpv6Slice.from_slice s = Ok (lv, None) /\ v = strict_v6 lv.
Proof.
  split.
  - rewrite v6lax_unfold. unfold LaxIpv6Slice.from_slice. intros H.
    binv H h Eh. binv H pl Epl. binv H hp Ehp. rewrite Eh. cbn [bind]. rewrite Epl. cbn [bind].
    destruct (v6_header_facts _ _ Eh) as (Lh & Ls & _ & _ & (nh & Enh)).
    assert (T : forall inc, exists lv,
              LaxIpv6Slice.finish h (fst hp) (snd hp) inc = Ok (lv, None) /\ v = strict_v6 lv).
    { intros inc. unfold strict_v6_tail in H. unfold LaxIpv6Slice.finish. rewrite Enh in H |- *.
      cbn [bind] in H |- *. pose proof (exts_sim nh (fst hp)) as X.
      destruct (Ipv6ExtensionsSlice.from_slice nh (fst hp)) as [[[x n] r]|[e|c]|b]; try discriminate.
      rewrite X. cbn [bind] in H |- *. injection H as <-. eexists. split; reflexivity. }
    unfold v6lax_select in Ehp.
    destruct ((0 =? pl) && (40 <? s_len s)).
    + binv Ehp n En. binv Ehp p Ep. injection Ehp as <-. rewrite En. cbn [bind]. rewrite Ep. cbn [bind].
      apply (T false).
    + destruct (s_len s <? 40 + pl).
      * binv Ehp n En. binv Ehp p Ep. injection Ehp as <-. rewrite En. cbn [bind]. rewrite Ep. cbn [bind].
        apply (T true).
      * binv Ehp p Ep. injection Ehp as <-. rewrite Ep. cbn [bind]. apply (T false).
  - intros (lv & E & ->). pose proof (v6lax_lax6_rel s) as X. rewrite E in X. exact X.
Qed.

(* ---- ... and against the IPv6 arm of LaxIpSlice::from_slice ------------------------------- *)
Definition v6lax_of_lax_ip (r : res (lax_ip_slice * option stop_error)) : res ipv6_slice :=
  match r with
  | Ok (LIpV6 lv, None) => Ok (strict_v6 lv)
  | Ok (LIpV6 _, Some (e, _)) => Err e
  | Ok (LIpV4 _, _) => Bug SITE_UNWRAP       (* does not occur with version nibble 6 *)
  | Err e => Err e
  | Bug b => Bug b
  end.

Lemma v6_header_err_nibble6 o b rest e :
  N.shiftr b 4 = 6 -> Ipv6HeaderSlice.from_slice (o, b :: rest) = Err e ->
  e = ELen (mkLenError 40 (s_len (o, b :: rest)) LsSlice LyIpv6Header 0).
Proof.
  intros N6. set (s := (o, b :: rest)). unfold Ipv6HeaderSlice.from_slice, lerr.
  destruct (s_len s <? 40) eqn:C; [intros H; injection H as <-; reflexivity|].
  change (rdU s 0) with (@Ok N b). cbn [bind]. rewrite N6. cbn [N.eqb Pos.eqb negb].
  intros H. exfalso. destruct (subU s 0 40) as [x|e'|b'] eqn:E; try discriminate.
  exact (subU_not_err _ _ _ _ E).
Qed.

Theorem v6lax_eq_lax_ip_arm o b rest :
  N.shiftr b 4 = 6 ->
  nobug (LaxIpSlice.from_slice (o, b :: rest)) ->
  Ipv6SliceLax.from_slice_lax (o, b :: rest) = v6lax_of_lax_ip (LaxIpSlice.from_slice (o, b :: rest)).
Proof.
  intros N6 NB. set (s := (o, b :: rest)) in *.
  assert (HF : F11 (b :: rest) = false).
  { unfold F11. destruct (N.shiftr b 4 =? 4) eqn:C; [lia|reflexivity]. }
  pose proof (lax_ip_dispatch o b rest HF) as D. fold s in D.
  unfold lax_ip_specific in D. rewrite N6 in D. cbn [N.eqb Pos.eqb] in D.
  pose proof (v6lax_lax6_rel s) as X.
  destruct (LaxIpSlice.from_slice s) as [[i st]|e|bg]; cbn [v6lax_of_lax_ip].
  - destruct (LaxIpv6Slice.from_slice s) as [[lv st']|e'|b']; cbn [rmap same_answer] in D; try contradiction.
    injection D as -> ->. cbn [fst snd]. exact X.
  - destruct (LaxIpv6Slice.from_slice s) as [[lv st']|e'|b'] eqn:E6; cbn [rmap same_answer] in D;
      try contradiction.
    cbn [v6lax_of_lax6] in X. rewrite X. f_equal.
    apply lax_ipv6_err_iff in E6. apply (v6_header_err_nibble6 o b rest e' N6) in E6. subst e'.
    destruct e as [l|c]; cbn [ip_err_canon] in D; [now injection D as ->|].
    destruct c; discriminate.
  - exfalso. now apply (NB bg).
Qed.

(* the nibble is not 6: the copy rejects like every IPv6-specific sibling *)
Theorem v6lax_mismatch o b rest :
  N.shiftr b 4 <> 6 ->
  Ipv6SliceLax.from_slice_lax (o, b :: rest) =
  if s_len (o, b :: rest) <? 40
  then Err (ELen (mkLenError 40 (s_len (o, b :: rest)) LsSlice LyIpv6Header 0))
  else Err (EContent (CeIpv6Version (N.shiftr b 4))).
Proof.
  intros N6. set (s := (o, b :: rest)). rewrite v6lax_unfold.
  unfold Ipv6HeaderSlice.from_slice, lerr.
  destruct (s_len s <? 40); [reflexivity|].
  change (rdU s 0) with (@Ok N b). cbn [bind].
  destruct (N.shiftr b 4 =? 6) eqn:C; [lia|]. reflexivity.
Qed.

Theorem v6lax_empty o :
  Ipv6SliceLax.from_slice_lax (o, []) = Err (ELen (mkLenError 40 0 LsSlice LyIpv6Header 0)).
Proof. reflexivity. Qed.

(* ---- C05 shape: against the strict Ipv6Slice::from_slice ---------------------------------- *)
Lemma v6_strict_unfold s :
  Ipv6Slice.from_slice s =
  (let* header := Ipv6HeaderSlice.from_slice s in
   let* pl := Ipv6HeaderSlice.payload_length header in
   let* hp :=
     (if (0 =? pl) && (40 <? s_len s) then
        let* n := subN (s_len s) 40 in let* p := subU s 40 n in Ok (p, LsSlice)
      else if s_len s <? 40 + pl then lerr (40 + pl) (s_len s) LsSlice LyIpv6Packet
      else let* p := subU s 40 pl in Ok (p, LsIpv6HeaderPayloadLen)) in
   strict_v6_tail header (fst hp) (snd hp)).
Proof.
  unfold Ipv6Slice.from_slice, Ipv6Slice.finish, strict_v6_tail.
  destruct (Ipv6HeaderSlice.from_slice s) as [h|e|b]; cbn [bind]; [|reflexivity|reflexivity].
  destruct (Ipv6HeaderSlice.payload_length h) as [pl|e|b]; cbn [bind]; [|reflexivity|reflexivity].
  match goal with |- bind ?X _ = bind ?X _ => destruct X as [[hp src]|e|b] end;
    cbn [bind fst snd]; reflexivity.
Qed.

(* (a) whatever Ipv6Slice::from_slice accepts, from_slice_lax returns unchanged (len_source
   included); (b)/(c) a rejection is kept, except the one the function is there to drop: more
   payload announced than present (`payload_length` not 0 or nothing behind the header), where
   it answers with the strict tail on the rest of the slice, the slice as length source *)
Theorem v6lax_vs_strict s :
  match Ipv6Slice.from_slice s with
  | Ok v => Ipv6SliceLax.from_slice_lax s = Ok v
  | Err e =>
      Ipv6SliceLax.from_slice_lax s = Err e \/
      exists h pl p,
        Ipv6HeaderSlice.from_slice s = Ok h /\ Ipv6HeaderSlice.payload_length h = Ok pl /\
        s_len s < 40 + pl /\
        e = ELen (mkLenError (40 + pl) (s_len s) LsSlice LyIpv6Packet 0) /\
        subU s 40 (s_len s - 40) = Ok p /\
        Ipv6SliceLax.from_slice_lax s = strict_v6_tail h p LsSlice
  | Bug _ => False
  end.
Proof.
  pose proof (nb_ipv6 s) as NB. rewrite v6_strict_unfold in *. rewrite v6lax_unfold.
  destruct (Ipv6HeaderSlice.from_slice s) as [h|e|b] eqn:Eh; cbn [bind] in *;
    [|left; reflexivity|now apply (NB b)].
  destruct (v6_header_facts _ _ Eh) as (Lh & Ls & _ & (pl & Epl) & _). rewrite Epl in *. cbn [bind] in *.
  unfold v6lax_select.
  destruct ((0 =? pl) && (40 <? s_len s)) eqn:Z.
  - match goal with |- match ?X with _ => _ end => destruct X as [v|e|b] eqn:E end;
      [reflexivity|left; reflexivity|now apply (NB b)].
  - destruct (s_len s <? 40 + pl) eqn:C.
    + unfold lerr. cbn [bind]. right.
      rewrite (subN_ok (s_len s) 40) by lia. cbn [bind].
      destruct (subU_ok s 40 (s_len s - 40)) as (p & E & _ & _); [lia|]. rewrite E. cbn [bind fst snd].
      exists h, pl, p. repeat split; try reflexivity; try assumption. lia.
    + match goal with |- match ?X with _ => _ end => destruct X as [v|e|b] eqn:E end;
        [reflexivity|left; reflexivity|now apply (NB b)].
Qed.

(* (c) Err only for an undecodable first header or a fault in the extension chain *)
Theorem v6lax_err_iff s e :
  Ipv6SliceLax.from_slice_lax s = Err e <->
  Ipv6HeaderSlice.from_slice s = Err e \/
  exists h pl hp,
    Ipv6HeaderSlice.from_slice s = Ok h /\ Ipv6HeaderSlice.payload_length h = Ok pl /\
    v6lax_select s pl = Ok hp /\ strict_v6_tail h (fst hp) (snd hp) = Err e.
Proof.
  rewrite v6lax_unfold.
  destruct (Ipv6HeaderSlice.from_slice s) as [h|e0|b] eqn:Eh; cbn [bind].
  - destruct (v6_header_facts _ _ Eh) as (Lh & Ls & _ & (pl & Epl) & _). rewrite Epl. cbn [bind].
    destruct (v6lax_select_ok s pl Ls) as (p & _ & E & _). rewrite E. cbn [bind fst snd]. split.
    + intros H. right. exists h, pl, (p, if ((0 =? pl) && (40 <? s_len s)) || (s_len s <? 40 + pl)
                                        then LsSlice else LsIpv6HeaderPayloadLen).
      repeat split; assumption.
    + intros [H|(h' & pl' & hp & H1 & H2 & H3 & H4)]; [discriminate|].
      injection H1 as <-. rewrite Epl in H2. injection H2 as <-. rewrite E in H3. injection H3 as <-.
      exact H4.
  - split; [intros H; left; injection H as <-; reflexivity|].
    intros [H|(h' & pl' & hp & H1 & _)]; [injection H as <-; reflexivity|discriminate].
  - split; [discriminate|]. intros [H|(h' & pl' & hp & H1 & _)]; discriminate.
Qed.

(* (d) the length source is honest.  Through the lax sibling (C05_incomplete_iff): the lax
   sibling marks the payload incomplete exactly when `payload_length` promised more than the
   slice holds; then from_slice_lax hands out the data up to the slice end with the slice as
   length source.  Stated directly as well: which source is reported, for every accepted input. *)
Theorem v6lax_len_source s v :
  Ipv6SliceLax.from_slice_lax s = Ok v ->
  exists lv h pl,
    LaxIpv6Slice.from_slice s = Ok (lv, None) /\ v = strict_v6 lv /\
    Ipv6HeaderSlice.from_slice s = Ok h /\ v6_header v = h /\
    Ipv6HeaderSlice.payload_length h = Ok pl /\
    lipp_incomplete (lv6_payload lv) = (s_len s <? 40 + pl) /\
    ipp_src (v6_payload v) =
      (if ((0 =? pl) && (40 <? s_len s)) || (s_len s <? 40 + pl)
       then LsSlice else LsIpv6HeaderPayloadLen) /\
    (s_len s < 40 + pl ->
     ipp_src (v6_payload v) = LsSlice /\ s_end (ipp_slice (v6_payload v)) = s_end s).
Proof.
  intros H. pose proof H as H0. apply v6lax_ok_iff in H. destruct H as (lv & El & ->).
  destruct (lax_ipv6_incomplete s lv None El) as (h & pl & Eh & Epl & Einc & Hinc).
  exists lv, h, pl. split; [exact El|]. split; [reflexivity|]. split; [exact Eh|].
  rewrite v6lax_unfold in H0. rewrite Eh in H0. cbn [bind] in H0. rewrite Epl in H0. cbn [bind] in H0.
  destruct (v6_header_facts _ _ Eh) as (_ & Ls & _ & _ & _).
  destruct (v6lax_select_ok s pl Ls) as (p & _ & E & _). rewrite E in H0. cbn [bind fst snd] in H0.
  apply strict_v6_tail_wf in H0. destruct H0 as (E1 & _ & E2 & _).
  split; [exact E1|]. split; [exact Epl|]. split; [exact Einc|]. split; [exact E2|].
  intros Lt. apply Hinc. rewrite Einc. lia.
Qed.

(* ---- C01 "depends only on the bytes of the slice": pointer-shift equivariance ------------- *)
Lemma strict_v6_tail_sh k h hp src :
  strict_v6_tail (sh k h) (sh k hp) src = rmap (sh_v6 k) (strict_v6_tail h hp src).
Proof. unfold strict_v6_tail. steps. Qed.

Theorem v6lax_sh k s :
  Ipv6SliceLax.from_slice_lax (sh k s) = rmap (sh_v6 k) (Ipv6SliceLax.from_slice_lax s).
Proof.
  rewrite !v6lax_unfold. unfold v6lax_select.
  steps; apply strict_v6_tail_sh.
Qed.

(* a window [pos, lim) of a larger buffer: the answer is that of a standalone copy of the
   window's bytes, every stored slice moved by pos *)
Theorem v6lax_window bs s pos lim :
  repr bs s pos lim ->
  Ipv6SliceLax.from_slice_lax s =
  rmap (sh_v6 pos) (Ipv6SliceLax.from_slice_lax (mk_slice (take (lim - pos) (drop pos bs)))).
Proof.
  intros (-> & _ & _). rewrite <- v6lax_sh. unfold sh, mk_slice. cbn [fst snd].
  now rewrite N.add_0_l.
Qed.

(* ---- combined forms for Props/C06.v -------------------------------------------------------- *)
Theorem v6lax_total s :
  nobug (Ipv6SliceLax.from_slice_lax s) /\
  forall v, Ipv6SliceLax.from_slice_lax s = Ok v ->
    wf_ipv6 v /\ ipv6_in v s /\
    (bytes_ok (snd s) ->
     Forall nobug (Ipv6SliceA.accessors v) /\ Forall (win_ok s) (Ipv6SliceA.windows v)).
Proof.
  split; [apply v6lax_nobug|]. intros v H. destruct (v6lax_wf _ _ H) as (W & I).
  split; [exact W|]. split; [exact I|]. intros Hok. now apply v6lax_accessors.
Qed.

(* the dispatching copy never returns Bug on the IPv6 arm: it is the IPv6 copy there *)
Lemma nb_lax_ip6 o b rest : N.shiftr b 4 = 6 -> nobug (LaxIpSlice.from_slice (o, b :: rest)).
Proof.
  intros N6 bg E.
  assert (HF : F11 (b :: rest) = false).
  { unfold F11. destruct (N.shiftr b 4 =? 4) eqn:C; [lia|reflexivity]. }
  pose proof (lax_ip_dispatch o b rest HF) as D. rewrite E in D.
  unfold lax_ip_specific in D. rewrite N6 in D. cbn [N.eqb Pos.eqb] in D.
  pose proof (nb_lax6 (o, b :: rest)) as NB.
  destruct (LaxIpv6Slice.from_slice (o, b :: rest)) as [[lv st]|e|b']; cbn [rmap same_answer] in D;
    try contradiction.
  now apply (NB b').
Qed.

Theorem v6lax_eq_lax_ip_arm_octets o b rest :
  N.shiftr b 4 = 6 -> bytes_ok (b :: rest) ->
  Ipv6SliceLax.from_slice_lax (o, b :: rest) = v6lax_of_lax_ip (LaxIpSlice.from_slice (o, b :: rest)).
Proof. intros N6 _. apply v6lax_eq_lax_ip_arm; [exact N6|now apply nb_lax_ip6]. Qed.

(* ---- example inputs of Props/C06.v (C06_ex_ipv6_slice_lax) ---------------------------------- *)
Definition v6lax_exA : bytes := [96;0;0;0; 0;100; 17; 64] ++ repeat 0 32 ++ [1;2;3;4;5;6;7;8].
Definition v6lax_exB : bytes := [96;0;0;0; 0;8; 60; 64] ++ repeat 0 32 ++ [43;0;0;0;0;0;0;0].
Definition v6lax_exC : bytes := [96;0;0;0; 0;16; 60; 64] ++ repeat 0 32 ++ [6;0;0;0;0;0;0;0] ++ [1;2;3;4;5;6;7;8;9].
Definition v6lax_exD : bytes := [96;0;0;0; 0;0; 44; 64] ++ repeat 0 32 ++ [17;0;0;9;0;0;0;1] ++ [1;2;3].
Definition v6lax_show (r : res ipv6_slice) :=
  match r with
  | Ok v => Some (win_of (v6_header v), x6_first (v6_exts v), win_of (x6_slice (v6_exts v)),
                  ipp_number (v6_payload v), ipp_fragmented (v6_payload v), ipp_src (v6_payload v),
                  win_of (ipp_slice (v6_payload v)))
  | _ => None
  end.

