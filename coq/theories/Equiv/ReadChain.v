(* Equiv/ReadChain.v -- C06 group 3: the IPv6 extension header chain.
   Ipv6Extensions::read / read_limited (a loop over read programs, on a plain
   Cursor or behind the LimitedReader of IpHeaders::read) against
   Ipv6Extensions::from_slice (a loop over slice decoders).  One induction covers
   both reader modes. *)
From EP Require Import Base.Bytes Base.Lists Parse.Types Parse.Slices Parse.Repr Parse.HdrModel
  Parse.HdrView IoFault.Model Equiv.ModelRead Equiv.Proofs Equiv.ReadBase Equiv.ReadSimple.
From Coq Require Import ZArith Lia ZifyN ZifyBool.

Local Open Scope N_scope.

(* ---- reader mode after a complete header of n bytes in layer `layer` ----------- *)
Definition m_done (m : rmode) (layer n : N) : rmode :=
  match m with
  | MPlain => MPlain
  | MLim r => MLim (mk_limrd (lr_max r - lr_read r) (lr_source r) layer (lr_off r + lr_read r) n)
  end.

Lemma m_done_ok d m layer n : m_ok d m -> n <= avail d m -> m_ok (drop n d) (m_done m layer n).
Proof.
  destruct m as [|r]; cbn [m_ok m_done avail lr_max lr_read]; [auto|].
  intros [H1 H2] H. rewrite len_drop. lia.
Qed.

Lemma avail_done d m layer n : n <= avail d m -> avail (drop n d) (m_done m layer n) = avail d m - n.
Proof.
  destruct m as [|r]; cbn [m_done avail lr_max lr_read]; intros H; [apply len_drop|reflexivity].
Qed.

Lemma lim_of_done m layer n : lim_of (m_done m layer n) = lim_of m.
Proof. destruct m; reflexivity. Qed.

Lemma m_adv_start1 m layer n : m_adv (m_start m layer) n = m_done m layer n.
Proof. destruct m; reflexivity. Qed.

Lemma m_adv_done m layer a n : m_adv (m_done m layer a) n = m_done m layer (a + n).
Proof. destruct m; reflexivity. Qed.

Lemma m_done_eq m layer a b : a = b -> m_done m layer a = m_done m layer b.
Proof. now intros ->. Qed.

(* the failure of a read_exact that asks for more than is available: end of file
   on a plain reader, LenError of the LimitedReader otherwise *)
Definition fail_out (m : rmode) (layer rq : N) : outcome :=
  match m with
  | MPlain => OEof
  | MLim r => OLen rq (lr_max r - lr_read r) (lr_source r) layer (lr_off r + lr_read r)
  end.

Lemma m_fail_start m layer n : m_fail (m_start m layer) n = fail_out m layer n.
Proof. destruct m; reflexivity. Qed.

Lemma m_fail_done m layer a n : m_fail (m_done m layer a) n = fail_out m layer (a + n).
Proof. destruct m; reflexivity. Qed.

(* ---- what IpHeaders::from_slice does to a length error of the chain ------------ *)
Definition wrap6 (lim : bool) (e : slice_error) : slice_error :=
  match lim, e with
  | true, ELen l => ELen (le_add_offset (le_set_src l LsIpv6HeaderPayloadLen) 40)
  | _, _ => e
  end.

(* LimitedReader of IpHeaders::read (IPv6 arm) against the payload slice *)
Definition lim_inv (m : rmode) (slice rest : Types.slice) : Prop :=
  match m with
  | MPlain => True
  | MLim r => lr_source r = LS_IPV6_PAYLOAD /\ lr_off r + lr_read r + s_len rest = 40 + s_len slice
  end.

Lemma fail_rel m d slice rest layer ly rq rq' :
  s_len rest = avail d m -> s_len rest <= s_len slice -> lim_inv m slice rest ->
  layer = layer_code ly ->
  (rq = rq' \/ (layer = L_IPV6EXT /\ avail d m < 8 /\ avail d m < rq /\ rq' = 8)) ->
  same_reason (fail_out m layer rq)
    (outcome_of_err (wrap6 (lim_of m)
       (ELen (mkLenError rq' (s_len rest) LsSlice ly (0 + (s_len slice - s_len rest)))))).
Proof.
  intros Ha Hle Hinv Hl Hrq. destruct m as [|r]; cbn [fail_out lim_of wrap6].
  - cbn. exact I.
  - cbn [avail] in *. destruct Hinv as [Hs Ho].
    cbn [outcome_of_err le_add_offset le_set_src Types.le_src Types.le_required Types.le_len
         Types.le_layer Types.le_off src_code].
    cbn [same_reason]. repeat split; try lia; try assumption.
Qed.

(* ---- bookkeeping carried through the chain -------------------------------------- *)
Definition x_inv (x : HdrModel.exts6) : Prop :=
  (x_route x = None -> x_fdest x = None) /\
  (forall f, x_frag x = Some f -> s_len f = 8).

(* read outcome `ro` against the slice decoder's answer `sr`: p bytes were
   consumed and xl bytes of extension headers recorded when the decoder stood at
   pointer offset o *)
Definition post (lim : bool) (p o xl : N) (ro : outcome) (sr : res (HdrModel.exts6 * N * Types.slice)) : Prop :=
  match sr with
  | Ok (x', _, rest') =>
      ro = OOk (p + (s_off rest' - o)) /\ x_inv x' /\ exts6_len x' = xl + (s_off rest' - o) /\ o <= s_off rest'
  | Err e => same_reason ro (outcome_of_err (wrap6 lim e))
  | Bug _ => False
  end.

Lemma post_shift lim p o xl n ro sr : post lim (p + n) (o + n) (xl + n) ro sr -> post lim p o xl ro sr.
Proof.
  unfold post. destruct sr as [[[x' nh'] rest']| |]; auto.
  intros (H1 & H2 & H3 & H4).
  split; [rewrite H1; f_equal; lia|]. split; [exact H2|]. split; lia.
Qed.

(* state of the two walkers *)
Record rel (m : rmode) (d : bytes) (slice rest : Types.slice) : Prop := mk_rel {
  r_bytes : bytes_ok d;
  r_ok : m_ok d m;
  r_data : snd rest = take (avail d m) d;
  r_le : s_len rest <= s_len slice;
  r_lim : lim_inv m slice rest }.

Lemma rel_len m d slice rest : rel m d slice rest -> s_len rest = avail d m.
Proof.
  intros [Hb Hok Hd Hle Hl]. unfold s_len. rewrite Hd. apply len_take_le. now apply avail_le.
Qed.

Lemma rel_rd m d slice rest i : rel m d slice rest -> i < avail d m -> rd (snd rest) i = rd d i.
Proof. intros [Hb Hok Hd Hle Hl] H. rewrite Hd. now apply rd_take_lt. Qed.

(* after a complete header of n bytes *)
Lemma rel_step m d slice rest layer n :
  rel m d slice rest -> n <= avail d m ->
  rel (m_done m layer n) (drop n d) slice (fst rest + n, drop n (snd rest)).
Proof.
  intros R Hn. pose proof (rel_len _ _ _ _ R) as Hl. destruct R as [Hb Hok Hd Hle Hlim].
  split.
  - now apply bytes_ok_drop.
  - now apply m_done_ok.
  - cbn [snd]. rewrite Hd, avail_done by exact Hn. apply drop_take_sub.
  - unfold s_len in *. cbn [snd]. rewrite len_drop. lia.
  - destruct m as [|r]; cbn [lim_inv m_done lr_source lr_off lr_read] in *; [exact I|].
    destruct Hlim as [Hs Ho]. split; [exact Hs|]. unfold s_len in *. cbn [snd]. rewrite len_drop.
    cbn [avail] in *. lia.
Qed.

(* ---- one raw extension header ---------------------------------------------------- *)
Lemma raw_read_form d p m k : m_ok d m ->
  O (ipv6_raw_ext_read (lim_of m) k) (mk_st d p m) =
  if avail d m <? 2 then fail_out m L_IPV6EXT 2
  else match rd d 0, rd d 1 with
       | Some nh, Some hl =>
           if avail d m <? (hl + 1) * 8 then fail_out m L_IPV6EXT (2 + (hl * 8 + 6))
           else O (k nh) (mk_st (drop ((hl + 1) * 8) d) (p + (hl + 1) * 8) (m_done m L_IPV6EXT ((hl + 1) * 8)))
       | _, _ => OBad 0
       end.
Proof.
  intros Hok. unfold ipv6_raw_ext_read. rewrite O_start by exact Hok.
  assert (Hok1 : m_ok d (m_start m L_IPV6EXT)) by (apply m_ok_start; exact Hok).
  assert (Ha1 : avail d (m_start m L_IPV6EXT) = avail d m) by (apply avail_start; exact Hok).
  pose proof (avail_le d m Hok) as Hle.
  rewrite O_read by exact Hok1. rewrite Ha1.
  destruct (avail d m <? 2) eqn:E2; ltb_tac.
  - is_false (2 <=? avail d m). apply m_fail_start.
  - is_true (2 <=? avail d m).
    getb d 0 nh H0. getb d 1 hl H1. rewrite H0, H1.
    rewrite (at_some _ 0 nh) by (rewrite rd_take_lt by lia; exact H0).
    rewrite (at_some _ 1 hl) by (rewrite rd_take_lt by lia; exact H1).
    rewrite m_adv_start1.
    rewrite O_read by (apply m_done_ok; [exact Hok|lia]).
    rewrite avail_done by lia.
    destruct (avail d m <? (hl + 1) * 8) eqn:E; ltb_tac.
    + is_false (hl * 8 + 6 <=? avail d m - 2). apply m_fail_done.
    + is_true (hl * 8 + 6 <=? avail d m - 2). rewrite drop_drop, m_adv_done.
      replace (2 + (hl * 8 + 6)) with ((hl + 1) * 8) by lia.
      replace (p + 2 + (hl * 8 + 6)) with (p + (hl + 1) * 8) by lia.
      reflexivity.
Qed.

Lemma raw_to_header_ok (o : N) (bs : bytes) hl : hl < 256 -> (hl + 1) * 8 <= len bs ->
  raw_ext_to_header (o, take ((hl + 1) * 8) bs) = Ok (o, take ((hl + 1) * 8) bs).
Proof.
  intros Hh Hl. unfold raw_ext_to_header. unfold s_len. cbn [snd]. rewrite len_take_le by lia.
  rewrite subN_ok by lia. cbn [bind].
  is_false ((hl + 1) * 8 - 2 <? 6). is_false (2046 <? (hl + 1) * 8 - 2).
  replace ((hl + 1) * 8 - 2 + 2) with ((hl + 1) * 8) by lia. rewrite N.mod_mul by lia.
  reflexivity.
Qed.

Lemma raw_step_rel m d p slice rest xl K_r K_s :
  rel m d slice rest ->
  (forall n nh, 8 <= n -> n <= avail d m ->
     post (lim_of m) (p + n) (s_off rest + n) (xl + n)
       (O (K_r nh) (mk_st (drop n d) (p + n) (m_done m L_IPV6EXT n)))
       (K_s (fst rest, take n (snd rest)) (fst rest + n, drop n (snd rest)) nh)) ->
  post (lim_of m) p (s_off rest) xl
    (O (ipv6_raw_ext_read (lim_of m) K_r) (mk_st d p m))
    (let* r := Ipv6Extensions.raw_step slice rest in let '(h, rest', nh) := r in K_s h rest' nh).
Proof.
  intros R HK. pose proof (rel_len _ _ _ _ R) as Hl.
  pose proof R as [Hb Hok Hd Hle Hlim].
  rewrite raw_read_form by exact Hok.
  unfold Ipv6Extensions.raw_step. rewrite subN_ok by exact Hle. cbn [bind].
  unfold Ipv6RawExtHeaderSlice.from_slice. rewrite Hl.
  destruct (avail d m <? 2) eqn:E2; ltb_tac.
  { is_true (avail d m <? 8). cbn [lerr map_len_err bind le_add_offset Types.le_required Types.le_len
      Types.le_src Types.le_layer Types.le_off post]. rewrite <- Hl.
    eapply fail_rel; eauto; right; cbn [Types.le_required]; repeat split; lia. }
  pose proof (avail_le d m Hok) as Hav.
  getb d 0 nh H0. getb d 1 hl H1. rewrite H0, H1.
  assert (Hhl : hl < 256) by (eapply rd_byte; eauto).
  destruct (avail d m <? 8) eqn:E8; ltb_tac.
  { is_true (avail d m <? (hl + 1) * 8).
    cbn [lerr map_len_err bind le_add_offset Types.le_required Types.le_len
      Types.le_src Types.le_layer Types.le_off post]. rewrite <- Hl.
    eapply fail_rel; eauto; right; cbn [Types.le_required]; repeat split; lia. }
  rewrite (rel_rd _ _ _ _ 1 R) by lia. rewrite H1. cbn [bind].
  destruct (avail d m <? (hl + 1) * 8) eqn:El; ltb_tac.
  { cbn [lerr map_len_err bind le_add_offset Types.le_required Types.le_len
      Types.le_src Types.le_layer Types.le_off post]. rewrite <- Hl.
    eapply fail_rel; eauto; left; cbn [Types.le_required]; lia. }
  rewrite subU_ok by lia. cbn [map_len_err bind]. rewrite drop_0.
  replace (s_len (fst rest + 0, take ((hl + 1) * 8) (snd rest))) with ((hl + 1) * 8)
    by (unfold s_len in *; cbn [snd]; rewrite len_take_le; lia).
  rewrite idx_from_ok by lia. cbn [bind].
  unfold Ipv6RawExtHeaderSlice.next_header.
  rewrite (rdU_some _ 0 nh) by (cbn [snd]; rewrite rd_take_lt by lia; rewrite (rel_rd _ _ _ _ 0 R) by lia; exact H0).
  cbn [bind]. rewrite raw_to_header_ok by (unfold s_len in *; lia). cbn [bind].
  rewrite N.add_0_r.
  apply post_shift with (n := (hl + 1) * 8). apply HK; lia.
Qed.

(* ---- the fragment header --------------------------------------------------------- *)
Lemma frag_read_form d p m k : m_ok d m ->
  O (ipv6_frag_read (lim_of m) k) (mk_st d p m) =
  if avail d m <? 8 then fail_out m L_IPV6FRAG 8
  else match rd d 0 with
       | Some nh => O (k nh) (mk_st (drop 8 d) (p + 8) (m_done m L_IPV6FRAG 8))
       | None => OBad 0
       end.
Proof.
  intros Hok. unfold ipv6_frag_read. rewrite O_start by exact Hok.
  assert (Hok1 : m_ok d (m_start m L_IPV6FRAG)) by (apply m_ok_start; exact Hok).
  assert (Ha1 : avail d (m_start m L_IPV6FRAG) = avail d m) by (apply avail_start; exact Hok).
  pose proof (avail_le d m Hok) as Hle.
  rewrite O_read by exact Hok1. rewrite Ha1.
  destruct (avail d m <? 8) eqn:E2; ltb_tac.
  - is_false (8 <=? avail d m). apply m_fail_start.
  - is_true (8 <=? avail d m).
    getb d 0 nh H0. rewrite H0.
    rewrite (at_some _ 0 nh) by (rewrite rd_take_lt by lia; exact H0).
    rewrite m_adv_start1. reflexivity.
Qed.

Lemma frag_step_rel m d p slice rest xl K_r K_s :
  rel m d slice rest ->
  (forall nh, 8 <= avail d m ->
     post (lim_of m) (p + 8) (s_off rest + 8) (xl + 8)
       (O (K_r nh) (mk_st (drop 8 d) (p + 8) (m_done m L_IPV6FRAG 8)))
       (K_s (fst rest, take 8 (snd rest)) (fst rest + 8, drop 8 (snd rest)) nh)) ->
  post (lim_of m) p (s_off rest) xl
    (O (ipv6_frag_read (lim_of m) K_r) (mk_st d p m))
    (let* off := subN (s_len slice) (s_len rest) in
     let* sl := map_len_err (fun e => le_add_offset e off) (Ipv6FragmentHeaderSlice.from_slice rest) in
     let* rest' := idx_from rest (s_len sl) in
     let* nh := Ipv6FragmentHeaderSlice.next_header sl in
     K_s sl rest' nh).
Proof.
  intros R HK. pose proof (rel_len _ _ _ _ R) as Hl.
  pose proof R as [Hb Hok Hd Hle Hlim].
  rewrite frag_read_form by exact Hok.
  rewrite subN_ok by exact Hle. cbn [bind].
  unfold Ipv6FragmentHeaderSlice.from_slice. rewrite Hl.
  destruct (avail d m <? 8) eqn:E8; ltb_tac.
  { cbn [lerr map_len_err bind le_add_offset Types.le_required Types.le_len
      Types.le_src Types.le_layer Types.le_off post]. rewrite <- Hl.
    eapply fail_rel; eauto; left; cbn [Types.le_required]; lia. }
  pose proof (avail_le d m Hok) as Hav.
  getb d 0 nh H0. rewrite H0.
  rewrite subU_ok by lia. cbn [map_len_err bind]. rewrite drop_0.
  replace (s_len (fst rest + 0, take 8 (snd rest))) with 8
    by (unfold s_len in *; cbn [snd]; rewrite len_take_le; lia).
  rewrite idx_from_ok by lia. cbn [bind].
  unfold Ipv6FragmentHeaderSlice.next_header.
  rewrite (rdU_some _ 0 nh) by (cbn [snd]; rewrite rd_take_lt by lia; rewrite (rel_rd _ _ _ _ 0 R) by lia; exact H0).
  cbn [bind]. rewrite N.add_0_r.
  apply post_shift with (n := 8). apply HK; lia.
Qed.

(* ---- the authentication header ---------------------------------------------------- *)
Lemma auth_read_form d p m k : m_ok d m ->
  O (ip_auth_read (lim_of m) k) (mk_st d p m) =
  if avail d m <? 12 then fail_out m L_AUTH 12
  else match rd d 0, rd d 1 with
       | Some nh, Some pl =>
           if pl <? 1 then OContent (KC CAuthZeroLen)
           else if avail d m <? (pl + 2) * 4 then fail_out m L_AUTH (12 + (pl - 1) * 4)
           else O (k nh) (mk_st (drop ((pl + 2) * 4) d) (p + (pl + 2) * 4) (m_done m L_AUTH ((pl + 2) * 4)))
       | _, _ => OBad 0
       end.
Proof.
  intros Hok. unfold ip_auth_read. rewrite O_start by exact Hok.
  assert (Hok1 : m_ok d (m_start m L_AUTH)) by (apply m_ok_start; exact Hok).
  assert (Ha1 : avail d (m_start m L_AUTH) = avail d m) by (apply avail_start; exact Hok).
  pose proof (avail_le d m Hok) as Hle.
  rewrite O_read by exact Hok1. rewrite Ha1.
  destruct (avail d m <? 12) eqn:E2; ltb_tac.
  - is_false (12 <=? avail d m). apply m_fail_start.
  - is_true (12 <=? avail d m).
    getb d 0 nh H0. getb d 1 pl H1. rewrite H0, H1.
    rewrite (at_some _ 0 nh) by (rewrite rd_take_lt by lia; exact H0).
    rewrite (at_some _ 1 pl) by (rewrite rd_take_lt by lia; exact H1).
    destruct (pl <? 1) eqn:Ep; ltb_tac; [reflexivity|].
    rewrite m_adv_start1.
    rewrite O_read by (apply m_done_ok; [exact Hok|lia]).
    rewrite avail_done by lia.
    destruct (avail d m <? (pl + 2) * 4) eqn:E; ltb_tac.
    + is_false ((pl - 1) * 4 <=? avail d m - 12). apply m_fail_done.
    + is_true ((pl - 1) * 4 <=? avail d m - 12). rewrite drop_drop, m_adv_done.
      replace (12 + (pl - 1) * 4) with ((pl + 2) * 4) by lia.
      replace (p + 12 + (pl - 1) * 4) with (p + (pl + 2) * 4) by lia.
      reflexivity.
Qed.

Lemma auth_to_header_ok (o : N) (bs : bytes) pl : 1 <= pl -> pl < 256 -> (pl + 2) * 4 <= len bs ->
  auth_to_header (o, take ((pl + 2) * 4) bs) = Ok (o, take ((pl + 2) * 4) bs).
Proof.
  intros H1 Hh Hl. unfold auth_to_header. unfold s_len. cbn [snd]. rewrite len_take_le by lia.
  rewrite subN_ok by lia. cbn [bind].
  replace ((pl + 2) * 4 - 12) with ((pl - 1) * 4) by lia.
  is_false (1016 <? (pl - 1) * 4). rewrite N.mod_mul by lia. reflexivity.
Qed.

Lemma auth_step_rel m d p slice rest xl K_r K_s :
  rel m d slice rest ->
  (forall n nh, 12 <= n -> n <= avail d m ->
     post (lim_of m) (p + n) (s_off rest + n) (xl + n)
       (O (K_r nh) (mk_st (drop n d) (p + n) (m_done m L_AUTH n)))
       (K_s (fst rest, take n (snd rest)) (fst rest + n, drop n (snd rest)) nh)) ->
  post (lim_of m) p (s_off rest) xl
    (O (ip_auth_read (lim_of m) K_r) (mk_st d p m))
    (let* off := subN (s_len slice) (s_len rest) in
     let* sl :=
       match IpAuthHeaderSlice.from_slice rest with
       | Err (ELen e) => Err (ELen (le_add_offset e off))
       | Err (EContent _) => Err (EContent CeIpv6AuthZeroPayloadLen)
       | r => r
       end in
     let* rest' := idx_from rest (s_len sl) in
     let* nh := IpAuthHeaderSlice.next_header sl in
     let* h := auth_to_header sl in
     K_s h rest' nh).
Proof.
  intros R HK. pose proof (rel_len _ _ _ _ R) as Hl.
  pose proof R as [Hb Hok Hd Hle Hlim].
  rewrite auth_read_form by exact Hok.
  rewrite subN_ok by exact Hle. cbn [bind].
  unfold IpAuthHeaderSlice.from_slice. rewrite Hl.
  destruct (avail d m <? 12) eqn:E8; ltb_tac.
  { cbn [lerr bind le_add_offset Types.le_required Types.le_len
      Types.le_src Types.le_layer Types.le_off post]. rewrite <- Hl.
    eapply fail_rel; eauto; left; cbn [Types.le_required]; lia. }
  pose proof (avail_le d m Hok) as Hav.
  getb d 0 nh H0. getb d 1 pl H1. rewrite H0, H1.
  assert (Hpl : pl < 256) by (eapply rd_byte; eauto).
  rewrite (rdU_some rest 1 pl) by (rewrite (rel_rd _ _ _ _ 1 R) by lia; exact H1). cbn [bind].
  destruct (pl <? 1) eqn:Ep; ltb_tac.
  { cbn [bind post]. destruct (lim_of m); cbn; reflexivity. }
  destruct (avail d m <? (pl + 2) * 4) eqn:El; ltb_tac.
  { cbn [lerr bind le_add_offset Types.le_required Types.le_len
      Types.le_src Types.le_layer Types.le_off post]. rewrite <- Hl.
    eapply fail_rel; eauto; left; cbn [Types.le_required]; lia. }
  rewrite subU_ok by lia. cbn [bind]. rewrite drop_0.
  replace (s_len (fst rest + 0, take ((pl + 2) * 4) (snd rest))) with ((pl + 2) * 4)
    by (unfold s_len in *; cbn [snd]; rewrite len_take_le; lia).
  rewrite idx_from_ok by lia. cbn [bind].
  unfold IpAuthHeaderSlice.next_header.
  rewrite (rdU_some _ 0 nh) by (cbn [snd]; rewrite rd_take_lt by lia; rewrite (rel_rd _ _ _ _ 0 R) by lia; exact H0).
  cbn [bind]. rewrite auth_to_header_ok by (unfold s_len in *; lia). cbn [bind].
  rewrite N.add_0_r.
  apply post_shift with (n := (pl + 2) * 4). apply HK; lia.
Qed.

(* ---- the loop --------------------------------------------------------------------- *)
Definition slots_of (x : HdrModel.exts6) : slots :=
  mk_slots (HdrModel.is_some (x_hbh x)) (HdrModel.is_some (x_dest x)) (HdrModel.is_some (x_route x))
           (HdrModel.is_some (x_fdest x)) (HdrModel.is_some (x_frag x)) (HdrModel.is_some (x_auth x)).

Definition bn (b : bool) : nat := if b then 0%nat else 1%nat.
Definition free_slots (s : slots) : nat :=
  (bn (s_dest s) + bn (s_route s) + bn (s_final s) + bn (s_frag s) + bn (s_auth s))%nat.

Lemma post_done lim p (rest : Types.slice) x nh d m a :
  x_inv x ->
  post lim p (s_off rest) (exts6_len x) (O (PRet a) (mk_st d p m)) (Ok (x, nh, rest)).
Proof.
  intros Hx. cbn [post]. rewrite O_ret. split; [f_equal; lia|]. split; [exact Hx|]. split; lia.
Qed.

Lemma len_sub_take (o : N) (bs : bytes) n : n <= len bs -> s_len (o, take n bs) = n.
Proof. intros H. unfold s_len. cbn [snd]. now apply len_take_le. Qed.

Lemma length_drop_lt (bs : bytes) n fs : 1 <= n -> n <= len bs -> (length bs < S fs)%nat ->
  (length (drop n bs) < fs)%nat.
Proof. intros H1 H2 H3. unfold drop. rewrite skipn_length. unfold len in *. lia. Qed.

Ltac slots_tac :=
  unfold free_slots, slots_of in *;
  cbn [bn s_hop s_dest s_route s_final s_frag s_auth
       x_hbh x_dest x_route x_fdest x_frag x_auth HdrModel.is_some] in *.

Lemma loop_rel : forall fuel_r fuel_s m d p slice x rest nh,
  rel m d slice rest -> x_inv x ->
  (free_slots (slots_of x) < fuel_r)%nat -> (length (snd rest) < fuel_s)%nat ->
  post (lim_of m) p (s_off rest) (exts6_len x)
    (O (x6_read_loop fuel_r (lim_of m) (slots_of x) nh) (mk_st d p m))
    (Ipv6Extensions.loop fuel_s slice x rest nh).
Proof.
  induction fuel_r as [|fr IH]; intros fuel_s m d p slice x rest nh R Hx Hfr Hfs; [lia|].
  destruct fuel_s as [|fs]; [lia|].
  pose proof (rel_len _ _ _ _ R) as Hl.
  cbn [x6_read_loop Ipv6Extensions.loop].
  change IPV6_HOP_BY_HOP with IPN_HOP_BY_HOP. change IPV6_DEST_OPTIONS with IPN_DEST_OPTIONS.
  change IPV6_ROUTE with IPN_ROUTE. change IPV6_FRAG with IPN_FRAG. change AUTH with IPN_AUTH.
  destruct (nh =? IPN_HOP_BY_HOP).
  { rewrite O_fail. cbn [post]. destruct (lim_of m); cbn; reflexivity. }
  destruct x as [hbh dest route fdest frag auth]. destruct Hx as [Hx1 Hx2]. slots_tac.
  cbn [x_route x_fdest x_frag] in Hx1, Hx2.
  assert (STEP : forall layer n x' nh',
    1 <= n -> n <= avail d m -> x_inv x' ->
    exts6_len x' = exts6_len (mkExts6 hbh dest route fdest frag auth) + n ->
    (free_slots (slots_of x') < fr)%nat ->
    post (lim_of m) (p + n) (s_off rest + n) (exts6_len (mkExts6 hbh dest route fdest frag auth) + n)
      (O (x6_read_loop fr (lim_of m) (slots_of x') nh') (mk_st (drop n d) (p + n) (m_done m layer n)))
      (Ipv6Extensions.loop fs slice x' (fst rest + n, drop n (snd rest)) nh')).
  { intros layer n x' nh' Hn1 Hn2 Hx' Hlen Hfree.
    rewrite <- (lim_of_done m layer n). rewrite <- Hlen.
    apply (IH fs (m_done m layer n) (drop n d) (p + n) slice x' (fst rest + n, drop n (snd rest)) nh').
    - apply rel_step; assumption.
    - exact Hx'.
    - exact Hfree.
    - cbn [snd]. apply length_drop_lt; [exact Hn1| |exact Hfs]. unfold s_len in Hl. lia. }
  destruct (nh =? IPN_DEST_OPTIONS).
  { destruct route as [rt|]; slots_tac.
    - destruct fdest as [fd|]; slots_tac.
      + apply post_done. split; cbn [x_route x_fdest x_frag]; [discriminate|exact Hx2].
      + apply (raw_step_rel m d p slice rest _ _
                 (fun h rest' nh' => Ipv6Extensions.loop fs slice (mkExts6 hbh dest (Some rt) (Some h) frag auth) rest' nh')).
        { exact R. }
        intros n nh' Hn1 Hn2.
        apply (STEP L_IPV6EXT n (mkExts6 hbh dest (Some rt) (Some (fst rest, take n (snd rest))) frag auth) nh');
          try lia.
        * split; cbn [x_route x_fdest x_frag]; [discriminate|exact Hx2].
        * unfold exts6_len. cbn [olen x_hbh x_dest x_route x_fdest x_frag x_auth].
          rewrite len_sub_take by (unfold s_len in Hl; lia). lia.
        * slots_tac. lia.
    - destruct dest as [de|]; slots_tac.
      + apply post_done. split; cbn [x_route x_fdest x_frag]; [exact Hx1|exact Hx2].
      + apply (raw_step_rel m d p slice rest _ _
                 (fun h rest' nh' => Ipv6Extensions.loop fs slice (mkExts6 hbh (Some h) None fdest frag auth) rest' nh')).
        { exact R. }
        intros n nh' Hn1 Hn2.
        apply (STEP L_IPV6EXT n (mkExts6 hbh (Some (fst rest, take n (snd rest))) None fdest frag auth) nh');
          try lia.
        * split; cbn [x_route x_fdest x_frag]; [exact Hx1|exact Hx2].
        * unfold exts6_len. cbn [olen x_hbh x_dest x_route x_fdest x_frag x_auth].
          rewrite len_sub_take by (unfold s_len in Hl; lia). lia.
        * slots_tac. lia. }
  destruct (nh =? IPN_ROUTE).
  { destruct route as [rt|]; slots_tac.
    - apply post_done. split; cbn [x_route x_fdest x_frag]; [discriminate|exact Hx2].
    - rewrite (Hx1 eq_refl) in *. slots_tac.
      apply (raw_step_rel m d p slice rest _ _
               (fun h rest' nh' => Ipv6Extensions.loop fs slice (mkExts6 hbh dest (Some h) None frag auth) rest' nh')).
      { exact R. }
      intros n nh' Hn1 Hn2.
      apply (STEP L_IPV6EXT n (mkExts6 hbh dest (Some (fst rest, take n (snd rest))) None frag auth) nh');
        try lia.
      * split; cbn [x_route x_fdest x_frag]; [discriminate|exact Hx2].
      * unfold exts6_len. cbn [olen x_hbh x_dest x_route x_fdest x_frag x_auth].
        rewrite len_sub_take by (unfold s_len in Hl; lia). lia.
      * slots_tac. lia. }
  destruct (nh =? IPN_FRAG).
  { destruct frag as [fg|]; slots_tac.
    - apply post_done. split; cbn [x_route x_fdest x_frag]; [exact Hx1|exact Hx2].
    - apply (frag_step_rel m d p slice rest _ _
               (fun sl rest' nh' => Ipv6Extensions.loop fs slice (mkExts6 hbh dest route fdest (Some sl) auth) rest' nh')).
      { exact R. }
      intros nh' Hn2.
      apply (STEP L_IPV6FRAG 8 (mkExts6 hbh dest route fdest (Some (fst rest, take 8 (snd rest))) auth) nh');
        try lia.
      * split; cbn [x_route x_fdest x_frag]; [exact Hx1|]. intros f Hf. injection Hf as <-.
        apply len_sub_take. unfold s_len in Hl. lia.
      * unfold exts6_len. cbn [olen x_hbh x_dest x_route x_fdest x_frag x_auth].
        rewrite len_sub_take by (unfold s_len in Hl; lia). lia.
      * slots_tac. lia. }
  destruct (nh =? IPN_AUTH).
  { destruct auth as [au|]; slots_tac.
    - apply post_done. split; cbn [x_route x_fdest x_frag]; [exact Hx1|exact Hx2].
    - apply (auth_step_rel m d p slice rest _ _
               (fun h rest' nh' => Ipv6Extensions.loop fs slice (mkExts6 hbh dest route fdest frag (Some h)) rest' nh')).
      { exact R. }
      intros n nh' Hn1 Hn2.
      apply (STEP L_AUTH n (mkExts6 hbh dest route fdest frag (Some (fst rest, take n (snd rest)))) nh');
        try lia.
      * split; cbn [x_route x_fdest x_frag]; [exact Hx1|exact Hx2].
      * unfold exts6_len. cbn [olen x_hbh x_dest x_route x_fdest x_frag x_auth].
        rewrite len_sub_take by (unfold s_len in Hl; lia). lia.
      * slots_tac. lia. }
  apply post_done. split; cbn [x_route x_fdest x_frag]; [exact Hx1|exact Hx2].
Qed.

(* ---- Ipv6Extensions::read / read_limited against Ipv6Extensions::from_slice ------ *)
Lemma prelude_eq slice (K : HdrModel.exts6 -> Types.slice -> N -> res (HdrModel.exts6 * N * Types.slice)) :
  (let* st := (let* sl := Ipv6RawExtHeaderSlice.from_slice slice in
               let* rest := idx_from slice (s_len sl) in
               let* nh := Ipv6RawExtHeaderSlice.next_header sl in
               let* h := raw_ext_to_header sl in
               Ok (mkExts6 (Some h) None None None None None, rest, nh)) in
   let '(result, rest, nh) := st in K result rest nh) =
  (let* r := Ipv6Extensions.raw_step slice slice in
   let '(h, rest', nh) := r in K (mkExts6 (Some h) None None None None None) rest' nh).
Proof.
  unfold Ipv6Extensions.raw_step. rewrite subN_ok by lia. cbn [bind]. rewrite N.sub_diag.
  destruct (Ipv6RawExtHeaderSlice.from_slice slice) as [sl|[l|c]|b]; cbn [map_len_err bind]; try reflexivity.
  - destruct (idx_from slice (s_len sl)); cbn [bind]; try reflexivity.
    destruct (Ipv6RawExtHeaderSlice.next_header sl); cbn [bind]; try reflexivity.
    destruct (raw_ext_to_header sl); cbn [bind]; reflexivity.
  - destruct l as [a b c d e]. unfold le_add_offset.
    cbn [Types.le_required Types.le_len Types.le_src Types.le_layer Types.le_off].
    now rewrite N.add_0_r.
Qed.

Lemma x6_rel m d p slice start :
  rel m d slice slice ->
  post (lim_of m) p (s_off slice) 0
    (O (x6_read (lim_of m) start) (mk_st d p m))
    (Ipv6Extensions.from_slice start slice).
Proof.
  intros R. pose proof (rel_len _ _ _ _ R) as Hl.
  unfold x6_read, Ipv6Extensions.from_slice.
  change IPV6_HOP_BY_HOP with IPN_HOP_BY_HOP.
  destruct (IPN_HOP_BY_HOP =? start).
  - rewrite (prelude_eq slice (fun result rest nh =>
               Ipv6Extensions.loop (S (length (snd slice))) slice result rest nh)).
    apply (raw_step_rel m d p slice slice 0 _
             (fun h rest' nh' => Ipv6Extensions.loop (S (length (snd slice))) slice
                                   (mkExts6 (Some h) None None None None None) rest' nh')).
    { exact R. }
    intros n nh' Hn1 Hn2.
    rewrite <- (lim_of_done m L_IPV6EXT n).
    replace (0 + n) with (exts6_len (mkExts6 (Some (fst slice, take n (snd slice))) None None None None None)).
    2:{ unfold exts6_len. cbn [olen x_hbh x_dest x_route x_fdest x_frag x_auth].
        rewrite len_sub_take by (unfold s_len in Hl; lia). lia. }
    apply (loop_rel X6_READ_FUEL (S (length (snd slice))) (m_done m L_IPV6EXT n) (drop n d) (p + n) slice
             (mkExts6 (Some (fst slice, take n (snd slice))) None None None None None)
             (fst slice + n, drop n (snd slice)) nh').
    + apply rel_step; assumption.
    + split; cbn [x_route x_fdest x_frag]; [reflexivity|discriminate].
    + unfold X6_READ_FUEL, exts6_empty. slots_tac. lia.
    + cbn [snd]. apply length_drop_lt; [lia| |lia]. unfold s_len in Hl. lia.
  - cbn [bind].
    apply (loop_rel X6_READ_FUEL (S (length (snd slice))) m d p slice exts6_empty slice start).
    + exact R.
    + split; cbn [x_route x_fdest x_frag exts6_empty]; [reflexivity|discriminate].
    + unfold X6_READ_FUEL, exts6_empty. slots_tac. lia.
    + lia.
Qed.

Lemma rel_plain bs : bytes_ok bs -> rel MPlain bs (mk_slice bs) (mk_slice bs).
Proof.
  intros Hb. split; cbn [m_ok avail lim_inv mk_slice snd]; auto.
  - symmetry. apply take_all. lia.
  - lia.
Qed.

Theorem read_eq_slice_ipv6_exts start bs : bytes_ok bs ->
  same_reason (read_outcome (HIpv6Exts start) bs) (slice_outcome (HIpv6Exts start) bs).
Proof.
  intros Hb. rewrite read_outcome_O by discriminate. unfold slice_outcome, read_prog.
  pose proof (x6_rel MPlain bs 0 (mk_slice bs) start (rel_plain bs Hb)) as H.
  cbn [lim_of] in H. unfold post in H.
  destruct (Ipv6Extensions.from_slice start (mk_slice bs)) as [[[x' nh'] rest']|e|b].
  - destruct H as (H1 & _ & H3 & _). rewrite H1. cbn [outcome_of_res fst same_reason].
    rewrite H3. reflexivity.
  - cbn [outcome_of_res]. destruct e; exact H.
  - elim H.
Qed.
