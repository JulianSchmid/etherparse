(* Equiv/HdrShift.v -- C06 group 1 for the struct family (PacketHeaders):
   from_ethernet_slice against from_ether_type on the bytes behind the Ethernet II
   header (pointer-shift equivariance of every struct decoder of Parse/HdrModel.v,
   same technique as Equiv/ShiftProofs.v), and from_ether_type(IPv4 | IPv6)
   against from_ip_slice. *)
From EP Require Import Base.Bytes Base.Lists Parse.Types Parse.Slices Parse.Cursor Parse.Repr
  Parse.HdrModel Equiv.Model Equiv.Proofs Equiv.ShiftProofs.
From Coq Require Import ZArith Lia ZifyN ZifyBool.
Import SlicedPacketCursor.

Local Open Scope N_scope.

(* ---- shifted values of the struct model ------------------------------------------- *)
Definition sh_pair k (p : slice * slice) : slice * slice := (sh k (fst p), sh k (snd p)).
Definition sh_x k (x : exts6) : exts6 :=
  mkExts6 (option_map (sh k) (x_hbh x)) (option_map (sh k) (x_dest x)) (option_map (sh k) (x_route x))
          (option_map (sh k) (x_fdest x)) (option_map (sh k) (x_frag x)) (option_map (sh k) (x_auth x)).
Definition sh_ih k (i : ip_headers) : ip_headers :=
  match i with
  | IhV4 h a => IhV4 (sh k h) (option_map (sh k) a)
  | IhV6 h x => IhV6 (sh k h) (sh_x k x)
  end.
Definition sh_htr k (t : htransport) : htransport :=
  match t with
  | HtUdp h => HtUdp (sh k h) | HtTcp h => HtTcp (sh k h)
  | HtIcmpv4 h => HtIcmpv4 (sh k h) | HtIcmpv6 h => HtIcmpv6 (sh k h)
  end.
Definition sh_hpl k (p : hpayload) : hpayload :=
  match p with
  | HpEmpty => HpEmpty
  | HpEther e => HpEther (sh_ep k e)
  | HpMacsecMod s => HpMacsecMod (sh k s)
  | HpIp i => HpIp (sh_ipp k i)
  | HpUdp s => HpUdp (sh k s) | HpTcp s => HpTcp (sh k s)
  | HpIcmpv4 s => HpIcmpv4 (sh k s) | HpIcmpv6 s => HpIcmpv6 (sh k s)
  end.
Definition sh_hx k (x : hlink_ext) : hlink_ext :=
  match x with HxVlan h => HxVlan (sh k h) | HxMacsec h => HxMacsec (sh k h) end.
Definition sh_hnet k (n : hnet) : hnet :=
  match n with HnIp i => HnIp (sh_ih k i) | HnArp s => HnArp (sh k s) end.
Definition sh_hp k (p : hpacket) : hpacket :=
  mkH (option_map (sh k) (h_link p)) (map (sh_hx k) (h_exts p)) (option_map (sh_hnet k) (h_net p))
      (option_map (sh_htr k) (h_transport p)) (sh_hpl k (h_payload p)).
Definition sh_hs k (st : hstate) : hstate :=
  mkHs (map (sh_hx k) (hs_exts st)) (sh_hpl k (hs_payload st)) (sh k (hs_rest st)) (hs_et st) (hs_src st).
Definition sh_lo k (o : loop_out) : loop_out :=
  match o with LDone p => LDone (sh_hp k p) | LBreak st => LBreak (sh_hs k st) end.
Definition sh_ihp k (r : ip_headers * ip_payload) : ip_headers * ip_payload :=
  (sh_ih k (fst r), sh_ipp k (snd r)).

(* ---- primitives --------------------------------------------------------------------- *)
Lemma idx_from_sh k s a : idx_from (sh k s) a = rmap (sh k) (idx_from s a).
Proof.
  unfold idx_from. rewrite s_len_sh. destruct (a <=? s_len s); [|reflexivity].
  cbn [rmap]. now rewrite sh_adv.
Qed.
#[export] Hint Resolve idx_from_sh : sh.

Lemma ptr_off_sh k rest base : ptr_off (sh k rest) (sh k base) = ptr_off rest base.
Proof. apply subN_add_cancel. Qed.

Lemma eth_hdr_sh k s : Ethernet2Header.from_slice (sh k s) = rmap (sh_pair k) (Ethernet2Header.from_slice s).
Proof. unfold Ethernet2Header.from_slice. steps. Qed.

Lemma vlan_hdr_sh k s : SingleVlanHeader.from_slice (sh k s) = rmap (sh_pair k) (SingleVlanHeader.from_slice s).
Proof. unfold SingleVlanHeader.from_slice. steps. Qed.

Lemma raw_to_header_sh k s : raw_ext_to_header (sh k s) = rmap (sh k) (raw_ext_to_header s).
Proof. unfold raw_ext_to_header. steps. Qed.

Lemma auth_to_header_sh k s : auth_to_header (sh k s) = rmap (sh k) (auth_to_header s).
Proof. unfold auth_to_header. steps. Qed.
#[export] Hint Resolve vlan_hdr_sh raw_to_header_sh auth_to_header_sh : sh.

Lemma v4hdr_sh k s : Ipv4Header.from_slice (sh k s) = rmap (sh_pair k) (Ipv4Header.from_slice s).
Proof. unfold Ipv4Header.from_slice. steps. Qed.

Lemma v6hdr_sh k s : Ipv6Header.from_slice (sh k s) = rmap (sh_pair k) (Ipv6Header.from_slice s).
Proof. unfold Ipv6Header.from_slice. steps. Qed.
#[export] Hint Resolve v4hdr_sh v6hdr_sh : sh.

Definition sh_x4r k (r : option slice * N * slice) : option slice * N * slice :=
  (option_map (sh k) (fst (fst r)), snd (fst r), sh k (snd r)).

Lemma x4_from_slice_sh k start s :
  Ipv4Extensions.from_slice start (sh k s) = rmap (sh_x4r k) (Ipv4Extensions.from_slice start s).
Proof. unfold Ipv4Extensions.from_slice. steps. Qed.
#[export] Hint Resolve x4_from_slice_sh : sh.

(* ---- the IPv6 extension chain ------------------------------------------------------- *)
Definition sh_step k (r : slice * slice * N) : slice * slice * N :=
  (sh k (fst (fst r)), sh k (snd (fst r)), snd r).

Lemma raw_step_sh k slice rest :
  Ipv6Extensions.raw_step (sh k slice) (sh k rest) = rmap (sh_step k) (Ipv6Extensions.raw_step slice rest).
Proof. unfold Ipv6Extensions.raw_step. steps. Qed.
#[export] Hint Resolve raw_step_sh : sh.

Definition sh_x6r' k (r : exts6 * N * slice) : exts6 * N * slice :=
  (sh_x k (fst (fst r)), snd (fst r), sh k (snd r)).

Lemma is_some_map {A B} (f : A -> B) (o : option A) : is_some (option_map f o) = is_some o.
Proof. destruct o; reflexivity. Qed.

(* the slots of the result are moved one by one, so each recursive call is on the moved
   record of its own argument *)
Lemma x6_loop_sh k fuel : forall slice x rest nh,
  Ipv6Extensions.loop fuel (sh k slice) (sh_x k x) (sh k rest) nh =
  rmap (sh_x6r' k) (Ipv6Extensions.loop fuel slice x rest nh).
Proof.
  induction fuel as [|f IH]; intros slice x rest nh; [reflexivity|].
  cbn [Ipv6Extensions.loop]. destruct x as [hbh dest route fdest frag auth].
  cbn [sh_x x_hbh x_dest x_route x_fdest x_frag x_auth]. rewrite !is_some_map.
  destruct (nh =? IPN_HOP_BY_HOP); [reflexivity|].
  destruct (nh =? IPN_DEST_OPTIONS).
  { destruct route as [rt|]; cbn [option_map]; steps;
      match goal with |- _ = rmap _ (Ipv6Extensions.loop _ _ ?x' _ _) => apply (IH slice x') end. }
  steps; match goal with |- _ = rmap _ (Ipv6Extensions.loop _ _ ?x' _ _) => apply (IH slice x') end.
Qed.

Lemma x6h_from_slice_sh k start s :
  Ipv6Extensions.from_slice start (sh k s) = rmap (sh_x6r' k) (Ipv6Extensions.from_slice start s).
Proof.
  unfold Ipv6Extensions.from_slice. rewrite snd_sh.
  steps; match goal with |- _ = rmap _ (Ipv6Extensions.loop _ _ ?x' _ _) => apply (x6_loop_sh k _ s x') end.
Qed.
#[export] Hint Resolve x6h_from_slice_sh : sh.

Lemma frag_flag_sh k x :
  Ipv6Extensions.is_fragmenting_payload (sh_x k x) = Ipv6Extensions.is_fragmenting_payload x.
Proof. unfold Ipv6Extensions.is_fragmenting_payload. destruct x as [? ? ? ? [f|] ?]; reflexivity. Qed.

(* ---- IpHeaders ---------------------------------------------------------------------- *)
Lemma v4_exts_sh k header rest :
  IpHeaders.v4_exts (sh k header) (sh k rest) = rmap (sh_ihp k) (IpHeaders.v4_exts header rest).
Proof. unfold IpHeaders.v4_exts. steps. Qed.

Lemma v6_exts_sh k header hp src :
  IpHeaders.v6_exts (sh k header) (sh k hp) src = rmap (sh_ihp k) (IpHeaders.v6_exts header hp src).
Proof. unfold IpHeaders.v6_exts. steps. rewrite frag_flag_sh. steps. Qed.
#[export] Hint Resolve v4_exts_sh v6_exts_sh : sh.

Lemma from_ipv4_slice_sh k s :
  IpHeaders.from_ipv4_slice (sh k s) = rmap (sh_ihp k) (IpHeaders.from_ipv4_slice s).
Proof. unfold IpHeaders.from_ipv4_slice. steps. Qed.

Lemma from_ipv6_slice_sh k s :
  IpHeaders.from_ipv6_slice (sh k s) = rmap (sh_ihp k) (IpHeaders.from_ipv6_slice s).
Proof. unfold IpHeaders.from_ipv6_slice. steps. Qed.
#[export] Hint Resolve from_ipv4_slice_sh from_ipv6_slice_sh : sh.

(* ---- transport ---------------------------------------------------------------------- *)
Lemma tcph_from_slice_sh k s : TcpHeader.from_slice (sh k s) = rmap (sh_pair k) (TcpHeader.from_slice s).
Proof. unfold TcpHeader.from_slice, TcpHeaderSlice.from_slice. steps. Qed.
#[export] Hint Resolve tcph_from_slice_sh : sh.

Definition sh_rt k (r : option htransport * hpayload) : option htransport * hpayload :=
  (option_map (sh_htr k) (fst r), sh_hpl k (snd r)).

Lemma read_transport_sh k p :
  read_transport (sh_ipp k p) = rmap (sh_rt k) (read_transport p).
Proof.
  unfold read_transport. destruct p as [num fr src sl]. cbn [sh_ipp ipp_number ipp_fragmented ipp_src ipp_slice].
  change (add_len_source (sh_ipp k (mkIpPayload num false src sl)))
    with (add_len_source (mkIpPayload num false src sl)).
  unfold Icmpv4Acc.header, Icmpv4Acc.payload, Icmpv6Acc.header, Icmpv6Acc.payload, UdpAcc.to_header, UdpAcc.payload.
  steps.
Qed.
#[export] Hint Resolve read_transport_sh : sh.

(* ---- PacketHeaders ------------------------------------------------------------------ *)
Import PacketHeaders.

Lemma add_offset_sh {A} k slice rest e :
  @add_offset A (sh k slice) (sh k rest) e = add_offset slice rest e.
Proof. unfold add_offset. now rewrite ptr_off_sh. Qed.

Lemma push_sh k l x : push (map (sh_hx k) l) (sh_hx k x) = rmap (map (sh_hx k)) (push l x).
Proof.
  unfold push. rewrite len_map. destruct (len l <? LINK_EXTS_CAP); [|reflexivity].
  cbn [rmap]. now rewrite map_app.
Qed.

Lemma add_offset_rmap {A B} (f : A -> B) slice rest e :
  @add_offset B slice rest e = rmap f (@add_offset A slice rest e).
Proof. unfold add_offset. destruct (ptr_off rest slice) as [d|[?|?]|?]; reflexivity. Qed.

Lemma add_offset_mv {A B} (f : A -> B) k slice rest e :
  @add_offset B (sh k slice) (sh k rest) e = rmap f (@add_offset A slice rest e).
Proof. rewrite add_offset_sh. apply add_offset_rmap. Qed.

Lemma push_vlan_sh k l v :
  push (map (sh_hx k) l) (HxVlan (sh k v)) = rmap (map (sh_hx k)) (push l (HxVlan v)).
Proof. exact (push_sh k l (HxVlan v)). Qed.
Lemma push_macsec_sh k l m :
  push (map (sh_hx k) l) (HxMacsec (ms_header (sh_ms k m))) =
  rmap (map (sh_hx k)) (push l (HxMacsec (ms_header m))).
Proof. exact (push_sh k l (HxMacsec (ms_header m))). Qed.
#[export] Hint Resolve add_offset_mv push_vlan_sh push_macsec_sh : sh.

Lemma link_loop_sh k fuel : forall slice st,
  link_loop fuel (sh k slice) (sh_hs k st) = rmap (sh_lo k) (link_loop fuel slice st).
Proof.
  induction fuel as [|f IH]; intros slice st; [reflexivity|].
  cbn [link_loop]. destruct st as [exts pl rest et src].
  cbn [sh_hs hs_exts hs_payload hs_rest hs_et hs_src]. rewrite !len_map.
  steps.
  - match goal with |- _ = rmap _ (link_loop _ _ ?st0) => apply (IH slice st0) end.
  - (* behind a MACsec header: the loop goes on for an unmodified payload only *)
    match goal with |- context [ms_payload (sh_ms k ?m)] =>
      change (ms_payload (sh_ms k m)) with (sh_mp k (ms_payload m));
      destruct (ms_payload m) as [[pet [] psl]|] end;
      try reflexivity;
      match goal with |- _ = rmap _ (link_loop _ _ ?st0) => apply (IH slice st0) end.
Qed.

Lemma net_part_sh k slice st :
  net_part (sh k slice) (sh_hs k st) = rmap (sh_hp k) (net_part slice st).
Proof.
  unfold net_part. destruct st as [exts pl rest et src].
  cbn [sh_hs hs_exts hs_payload hs_rest hs_et hs_src].
  steps; apply (add_offset_mv (sh_hp k) k slice (ipp_slice _)).
Qed.

Lemma from_ether_type_slice_sh k et s :
  from_ether_type_slice et (sh k s) = rmap (sh_hp k) (from_ether_type_slice et s).
Proof.
  unfold from_ether_type_slice.
  change (mkHs [] (HpEther (mkEtherPayload et LsSlice (sh k s))) (sh k s) et LsSlice)
    with (sh_hs k (mkHs [] (HpEther (mkEtherPayload et LsSlice s)) s et LsSlice)).
  rewrite link_loop_sh.
  destruct (link_loop 5 s (mkHs [] (HpEther (mkEtherPayload et LsSlice s)) s et LsSlice))
    as [[p|st]|[?|?]|?]; cbn [bind rmap sh_lo]; try reflexivity.
  apply net_part_sh.
Qed.

(* the Ethernet II header of a standalone input: 14 octets and the rest, the ether type from
   octets 12 and 13 *)
Lemma eth_hdr_long bs a b : rd bs 12 = Some a -> rd bs 13 = Some b ->
  Ethernet2Header.from_slice (mk_slice bs) = Ok ((0, take 14 bs), sh 14 (mk_slice (drop 14 bs))) /\
  Ethernet2Header.ether_type (0, take 14 bs) = Ok (be16 a b).
Proof.
  intros Ha Hb.
  assert (L : 14 <= len bs) by (apply rd_Some_lt in Hb; lia).
  unfold Ethernet2Header.from_slice.
  change (s_len (mk_slice bs)) with (len bs).
  destruct (len bs <? 14) eqn:E; [apply N.ltb_lt in E; lia|].
  unfold subU. change (s_len (mk_slice bs)) with (len bs).
  destruct (0 + 14 <=? len bs) eqn:E2; [|apply N.leb_gt in E2; lia]. cbn [bind].
  rewrite idx_from_ok by (change (s_len (mk_slice bs)) with (len bs); lia). cbn [bind].
  split; [reflexivity|].
  unfold Ethernet2Header.ether_type, rd16, rdU. cbn [fst snd].
  rewrite !rd_take_lt by lia.
  change (12 + 1) with 13. rewrite Ha, Hb. reflexivity.
Qed.

Lemma eth_hdr_short bs : len bs < 14 ->
  Ethernet2Header.from_slice (mk_slice bs) = Err (ELen (mkLenError 14 (len bs) LsSlice LyEthernet2Header 0)).
Proof.
  intros H. unfold Ethernet2Header.from_slice. change (s_len (mk_slice bs)) with (len bs).
  destruct (len bs <? 14) eqn:E; [reflexivity|apply N.ltb_ge in E; lia].
Qed.

(* ---- group 1a: from_ethernet_slice against from_ether_type -------------------------- *)
(* every decoded header and the payload 14 bytes later in the caller's buffer,
   every layer_start_offset of a length error 14 bytes later, everything else
   (values, length sources, content errors) equal; the Ethernet II header in front *)
Theorem headers_ethernet_eq_ethertype bs a b :
  rd bs 12 = Some a -> rd bs 13 = Some b ->
  from_ethernet_slice bs =
  match from_ether_type (be16 a b) (drop 14 bs) with
  | Ok r => Ok (mkH (Some (0, take 14 bs)) (map (sh_hx 14) (h_exts r)) (option_map (sh_hnet 14) (h_net r))
                    (option_map (sh_htr 14) (h_transport r)) (sh_hpl 14 (h_payload r)))
  | Err (ELen e) => Err (ELen (le_add_offset e 14))
  | r => r
  end.
Proof.
  intros Ha Hb. destruct (eth_hdr_long bs a b Ha Hb) as [EH ET].
  unfold from_ethernet_slice, from_ether_type. rewrite EH. cbn [bind]. rewrite ET. cbn [bind].
  rewrite from_ether_type_slice_sh.
  destruct (from_ether_type_slice (be16 a b) (mk_slice (drop 14 bs))) as [r|[e|c]|bg]; cbn [rmap]; reflexivity.
Qed.

Theorem headers_ethernet_short bs : len bs < 14 ->
  from_ethernet_slice bs = Err (ELen (mkLenError 14 (len bs) LsSlice LyEthernet2Header 0)).
Proof. intros H. unfold from_ethernet_slice. rewrite (eth_hdr_short bs H). reflexivity. Qed.

(* ---- group 1b: from_ether_type(IPv4 | IPv6) against from_ip_slice -------------------- *)
Lemma le_add_offset_0 e : le_add_offset e 0 = e.
Proof. destruct e. unfold le_add_offset. cbn. now rewrite N.add_0_r. Qed.

Lemma add_offset_self {A} (s : slice) e : @add_offset A s s e = Err (ELen e).
Proof.
  unfold add_offset, ptr_off. rewrite subN_ok by lia. cbn [bind]. rewrite N.sub_diag.
  now rewrite le_add_offset_0.
Qed.

(* the tail shared by from_ip_slice and the IP arms of from_ether_type *)
Definition ip_tail (slice : Types.slice) (exts : list hlink_ext)
  (r : res (ip_headers * ip_payload)) : res hpacket :=
  match r with
  | Err (ELen e) => add_offset slice slice e
  | Err e => Err e
  | Bug b => Bug b
  | Ok (ip, ip_payload) =>
      match read_transport ip_payload with
      | Err (ELen e) => add_offset slice (ipp_slice ip_payload) e
      | Err e => Err e
      | Bug b => Bug b
      | Ok (transport, payload) => Ok (mkH None exts (Some (HnIp ip)) transport payload)
      end
  end.

Lemma ip_tail_same slice r1 r2 :
  same_answer r1 r2 -> same_answer (ip_tail slice [] r1) (ip_tail slice [] r2).
Proof.
  destruct r1 as [[ip1 p1]|e1|b1], r2 as [[ip2 p2]|e2|b2]; cbn [same_answer]; try contradiction.
  - intros E. injection E as <- <-. apply same_answer_refl.
  - intros E. unfold ip_tail.
    destruct e1 as [l1|c1], e2 as [l2|c2]; rewrite ?add_offset_self; cbn [same_answer]; exact E.
  - intros ->. reflexivity.
Qed.

Lemma from_ip_slice_tail bs :
  from_ip_slice bs = ip_tail (mk_slice bs) [] (IpHeaders.from_slice (mk_slice bs)).
Proof.
  unfold from_ip_slice, ip_tail.
  destruct (IpHeaders.from_slice (mk_slice bs)) as [[ip ipp]|[l|c]|b]; cbn [bind]; try reflexivity.
  now rewrite add_offset_self.
Qed.

Lemma from_ether_type_v4_tail bs :
  from_ether_type ET_IPV4 bs = ip_tail (mk_slice bs) [] (IpHeaders.from_ipv4_slice (mk_slice bs)).
Proof.
  unfold from_ether_type, from_ether_type_slice.
  change (link_loop 5 (mk_slice bs)
            (mkHs [] (HpEther (mkEtherPayload ET_IPV4 LsSlice (mk_slice bs))) (mk_slice bs) ET_IPV4 LsSlice))
    with (@Ok loop_out (LBreak (mkHs [] (HpEther (mkEtherPayload ET_IPV4 LsSlice (mk_slice bs)))
                                  (mk_slice bs) ET_IPV4 LsSlice))).
  cbn [bind]. unfold net_part, ip_tail. cbn [hs_et hs_rest hs_exts].
  change (ET_IPV4 =? ET_IPV4) with true. cbv iota.
  destruct (IpHeaders.from_ipv4_slice (mk_slice bs)) as [[ip ipp]|[l|c]|b]; reflexivity.
Qed.

Lemma from_ether_type_v6_tail bs :
  from_ether_type ET_IPV6 bs = ip_tail (mk_slice bs) [] (IpHeaders.from_ipv6_slice (mk_slice bs)).
Proof.
  unfold from_ether_type, from_ether_type_slice.
  change (link_loop 5 (mk_slice bs)
            (mkHs [] (HpEther (mkEtherPayload ET_IPV6 LsSlice (mk_slice bs))) (mk_slice bs) ET_IPV6 LsSlice))
    with (@Ok loop_out (LBreak (mkHs [] (HpEther (mkEtherPayload ET_IPV6 LsSlice (mk_slice bs)))
                                  (mk_slice bs) ET_IPV6 LsSlice))).
  cbn [bind]. unfold net_part, ip_tail. cbn [hs_et hs_rest hs_exts].
  change (ET_IPV6 =? ET_IPV4) with false. change (ET_IPV6 =? ET_IPV6) with true. cbv iota.
  destruct (IpHeaders.from_ipv6_slice (mk_slice bs)) as [[ip ipp]|[l|c]|b]; reflexivity.
Qed.

(* no exclusion: both struct copies check the 20 fixed bytes before the IHL (F11
   does not reach the PacketHeaders family) *)
Theorem headers_ethertype_eq_ip b rest :
  (N.shiftr b 4 = 4 ->
   same_answer (from_ip_slice (b :: rest)) (from_ether_type ET_IPV4 (b :: rest))) /\
  (N.shiftr b 4 = 6 ->
   same_answer (from_ip_slice (b :: rest)) (from_ether_type ET_IPV6 (b :: rest))).
Proof.
  pose proof (ip_headers_dispatch 0 b rest) as D. unfold ip_headers_specific in D.
  split; intros Hv.
  - rewrite from_ip_slice_tail, from_ether_type_v4_tail. apply ip_tail_same.
    rewrite Hv in D. exact D.
  - rewrite from_ip_slice_tail, from_ether_type_v6_tail. apply ip_tail_same.
    rewrite Hv in D. exact D.
Qed.
