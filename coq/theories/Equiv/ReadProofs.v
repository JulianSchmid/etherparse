(* Equiv/ReadProofs.v -- C06 group 3: read(Cursor(bs)) and from_slice(bs) have
   the same outcome, for the four header types of fixed size; the known
   class F15 with its witness. *)
From EP Require Import Base.Bytes Parse.Types Parse.Slices Parse.HdrModel IoFault.Spec IoFault.Model
  IoFault.Proofs Equiv.ModelRead Equiv.Proofs.
From Coq Require Import ZArith Lia ZifyN ZifyBool.

Local Open Scope N_scope.

(* one read_exact of a program running on a plain (unlimited) reader *)
Lemma run_PRead s n k : 1 <= src_chunk s ->
  run_r (PRead n k) (mk_rstate s None) =
  if n <=? len (src_data s)
  then run_r (k (take n (src_data s)))
         (mk_rstate (mk_fsource (drop n (src_data s)) (src_chunk s) (src_err s) (src_pulled s + n)) None)
  else (QIo (src_kind s),
        mk_rstate (mk_fsource [] (src_chunk s) (src_err s) (src_pulled s + len (src_data s))) None).
Proof.
  intros Hc. cbn [run_r rs_lim rs_src].
  destruct (n <=? len (src_data s)) eqn:E.
  - rewrite io_read_exact_ok by (try assumption; lia). reflexivity.
  - rewrite io_read_exact_fail by (try assumption; lia). reflexivity.
Qed.

Lemma cursor_chunk bs : 1 <= src_chunk (cursor_src bs).
Proof. cbn. lia. Qed.

(* a header of fixed size n: read = read_exact n; from_slice = length check + prefix *)
Lemma read_fixed_outcome n bs :
  outcome_of_run (run_r (read_fixed n) (mk_rstate (cursor_src bs) None)) =
  if n <=? len bs then OOk n else OEof.
Proof.
  unfold read_fixed. rewrite run_PRead by apply cursor_chunk.
  cbn [cursor_src src_data]. destruct (n <=? len bs); reflexivity.
Qed.

Lemma fixed_slice_outcome n ly bs :
  outcome_of_res s_len
    (if s_len (mk_slice bs) <? n then lerr n (s_len (mk_slice bs)) LsSlice ly else subU (mk_slice bs) 0 n) =
  if n <=? len bs then OOk n else OEof.
Proof.
  change (s_len (mk_slice bs)) with (len bs).
  destruct (len bs <? n) eqn:E, (n <=? len bs) eqn:E'; try lia; [reflexivity|].
  destruct (subU (mk_slice bs) 0 n) as [h| |] eqn:Eh.
  - cbn. now rewrite (subU_len _ _ _ _ Eh).
  - unfold subU in Eh. destruct (0 + n <=? s_len (mk_slice bs)); discriminate.
  - unfold subU in Eh. change (s_len (mk_slice bs)) with (len bs) in Eh.
    destruct (0 + n <=? len bs) eqn:E2; [discriminate|lia].
Qed.

Theorem read_eq_slice_ethernet2 bs : read_outcome HEthernet2 bs = slice_outcome HEthernet2 bs.
Proof.
  unfold read_outcome, slice_outcome, read_prog. rewrite read_fixed_outcome.
  unfold Ethernet2Header.from_slice. change (s_len (mk_slice bs)) with (len bs).
  destruct (len bs <? 14) eqn:E, (14 <=? len bs) eqn:E'; try lia; [reflexivity|].
  destruct (subU (mk_slice bs) 0 14) as [h| |] eqn:Eh; cbn [bind].
  - rewrite idx_from_ok by (change (s_len (mk_slice bs)) with (len bs); lia).
    cbn. now rewrite (subU_len _ _ _ _ Eh).
  - unfold subU in Eh. destruct (0 + 14 <=? s_len (mk_slice bs)); discriminate.
  - unfold subU in Eh. change (s_len (mk_slice bs)) with (len bs) in Eh.
    destruct (0 + 14 <=? len bs) eqn:E2; [discriminate|lia].
Qed.

Theorem read_eq_slice_single_vlan bs : read_outcome HSingleVlan bs = slice_outcome HSingleVlan bs.
Proof.
  unfold read_outcome, slice_outcome, read_prog. rewrite read_fixed_outcome.
  unfold SingleVlanHeader.from_slice. change (s_len (mk_slice bs)) with (len bs).
  destruct (len bs <? 4) eqn:E, (4 <=? len bs) eqn:E'; try lia; [reflexivity|].
  destruct (subU (mk_slice bs) 0 4) as [h| |] eqn:Eh; cbn [bind].
  - rewrite idx_from_ok by (change (s_len (mk_slice bs)) with (len bs); lia).
    cbn. now rewrite (subU_len _ _ _ _ Eh).
  - unfold subU in Eh. destruct (0 + 4 <=? s_len (mk_slice bs)); discriminate.
  - unfold subU in Eh. change (s_len (mk_slice bs)) with (len bs) in Eh.
    destruct (0 + 4 <=? len bs) eqn:E2; [discriminate|lia].
Qed.

Theorem read_eq_slice_udp bs : read_outcome HUdp bs = slice_outcome HUdp bs.
Proof.
  unfold read_outcome, slice_outcome, read_prog. rewrite read_fixed_outcome.
  unfold UdpSlice.header_from_slice. now rewrite fixed_slice_outcome.
Qed.

Lemma rd_take_0 n (bs : bytes) : 1 <= n -> 1 <= len bs -> exists v, rd (take n bs) 0 = Some v.
Proof.
  intros Hn Hl. apply rd_lt_Some. rewrite len_take.
  destruct (N.min_spec n (len bs)) as [[_ ->]|[_ ->]]; lia.
Qed.

Theorem read_eq_slice_ipv6_frag bs : read_outcome HIpv6Frag bs = slice_outcome HIpv6Frag bs.
Proof.
  unfold read_outcome, slice_outcome, read_prog, ipv6_frag_read, with_start.
  rewrite run_PRead by apply cursor_chunk. cbn [cursor_src src_data src_chunk src_err src_pulled].
  unfold Ipv6FragmentHeaderSlice.from_slice. rewrite fixed_slice_outcome.
  destruct (8 <=? len bs) eqn:E; [|reflexivity].
  destruct (rd_take_0 8 bs) as (v & Hv); try lia.
  unfold at_. rewrite Hv. reflexivity.
Qed.

(* ---- known class F15 ------------------------------------------------------- *)
(* IpHeaders::read bounds the extension headers by the IPv6 payload length
   field even when it is 0, IpHeaders::from_slice reads 0 as "up to the end of
   the slice": IPv6, payload length 0, next header an extension header *)
Definition F15 (bs : bytes) : bool :=
  match bs with
  | b0 :: _ :: _ :: _ :: p0 :: p1 :: nh :: _ =>
      (N.shiftr b0 4 =? 6) && (p0 =? 0) && (p1 =? 0) &&
      ((nh =? 0) || (nh =? 43) || (nh =? 44) || (nh =? 51) || (nh =? 60))
  | _ => false
  end.

Lemma F15_rd bs b0 p0 p1 nh :
  rd bs 0 = Some b0 -> rd bs 4 = Some p0 -> rd bs 5 = Some p1 -> rd bs 6 = Some nh ->
  F15 bs = (N.shiftr b0 4 =? 6) && (p0 =? 0) && (p1 =? 0) &&
           ((nh =? 0) || (nh =? 43) || (nh =? 44) || (nh =? 51) || (nh =? 60)).
Proof.
  destruct bs as [|a0 [|a1 [|a2 [|a3 [|a4 [|a5 [|a6 r]]]]]]]; unfold rd; cbn [N.to_nat Pos.to_nat Pos.iter_op nth_error plus];
    try discriminate.
  intros E0 E4 E5 E6. injection E0 as <-. injection E4 as <-. injection E5 as <-. injection E6 as <-.
  reflexivity.
Qed.

Definition f15_witness : bytes :=
  [96;0;0;0;0;0;60;64] ++ repeat 0 32 ++ [17;0;0;0;0;0;0;0; 0;1;0;2;0;8;0;0].

Lemma read_eq_slice_ip_headers_refuted :
  exists bs, F15 bs = true /\ read_outcome HIpHeaders bs <> slice_outcome HIpHeaders bs.
Proof.
  exists f15_witness. split; [vm_compute; reflexivity|].
  vm_compute. intros H. discriminate H.
Qed.

Lemma f15_witness_outcomes :
  read_outcome HIpHeaders f15_witness = OLen 2 0 LS_IPV6_PAYLOAD L_IPV6EXT 40 /\
  slice_outcome HIpHeaders f15_witness = OOk 48.
Proof. split; vm_compute; reflexivity. Qed.
