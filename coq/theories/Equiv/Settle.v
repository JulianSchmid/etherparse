(* Two small tools of the read-against-from_slice proofs: a comparison on N whose outcome follows
   from the context by linear arithmetic is replaced by that outcome; a property of one octet is
   checked on all 256. *)
From Coq Require Import NArith Lia List.
Import ListNotations.
Local Open Scope N_scope.

Ltac is_true c :=
  replace c with true by (symmetry; first [apply N.leb_le|apply N.ltb_lt|apply N.eqb_eq]; lia).
Ltac is_false c :=
  replace c with false by (symmetry; first [apply N.leb_gt|apply N.ltb_ge|apply N.eqb_neq]; lia).

Fixpoint upto (n : nat) : list N :=
  match n with O => [] | S k => N.of_nat k :: upto k end.

Lemma upto_in n : forall v, v < N.of_nat n -> In v (upto n).
Proof.
  induction n as [|n IH]; intros v H; [lia|]. cbn [upto].
  destruct (N.eq_dec v (N.of_nat n)) as [E|E]; [left; auto|right; apply IH; lia].
Qed.

Lemma sweep256 (P : N -> bool) : forallb P (upto 256) = true -> forall v, v < 256 -> P v = true.
Proof.
  intros H v Hv. rewrite forallb_forall in H. apply H. apply upto_in.
  change (N.of_nat 256) with 256. exact Hv.
Qed.
