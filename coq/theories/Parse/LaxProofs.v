(* Parse/LaxProofs.v -- the lax slicing model against the strict slicing model,
   function by function (both are built from the same header slicers, so the
   relation is proved by walking through the two texts side by side; no byte
   level reasoning is needed for these lemmas):
     strict accepts            ->  lax returns the embedded strict result, no stop error
     strict rejects (per layer)->  lax returns Err only for the first header, otherwise the
                                   fault is a documented length fallback or it is recorded
                                   unchanged as stop error with a fitting layer tag
   The "strict rejects" clause is proved here per layer only; for whole packets the file
   has (a) (`*_extends`), and the rejecting case is Parse/LaxPrefix.v.
   The tools for walking through a model function primitive by primitive (`no_err`, hint
   db and tactic `ne`, `dprim`, `prim_err`, the inversion lemmas of `subU` / `rdU`) are
   defined here and used by the HdrLax* files and Equiv/ as well. *)
From EP Require Import Base.Bytes Base.Lists Parse.Types Parse.Slices Parse.Cursor Parse.View Parse.Repr
  Parse.LaxSlices Parse.LaxCursor Parse.LaxView.
From Coq Require Import ZArith Lia ZifyN ZifyBool.
Import SlicedPacketCursor.
Local Open Scope N_scope.

Definition lax_of_ep (e : ether_payload) : lax_ether_payload :=
  mkLaxEp false (ep_ether_type e) (ep_src e) (ep_slice e).
Definition lax_of_ipp (p : ip_payload) : lax_ip_payload :=
  mkLaxIpp false (ipp_number p) (ipp_fragmented p) (ipp_src p) (ipp_slice p).
Definition lax_of_macsec (m : macsec_slice) : lax_macsec_slice :=
  mkLaxMacsec (ms_header m)
    (match ms_payload m with
     | MpUnmodified e => LMpUnmodified (lax_of_ep e)
     | MpModified s => LMpModified false s
     end).
Definition lax_of_v4 (v : ipv4_slice) : lax_ipv4_slice :=
  mkLaxIpv4 (v4_header v) (v4_auth v) (lax_of_ipp (v4_payload v)).
Definition lax_of_v6 (v : ipv6_slice) : lax_ipv6_slice :=
  mkLaxIpv6 (v6_header v) (v6_exts v) (lax_of_ipp (v6_payload v)).
Definition lax_of_ip (i : ip_slice) : lax_ip_slice :=
  match i with IpV4 v => LIpV4 (lax_of_v4 v) | IpV6 v => LIpV6 (lax_of_v6 v) end.
Definition lax_of_ext (x : link_ext_slice) : lax_link_ext_slice :=
  match x with LeVlan s => LLeVlan s | LeMacsec m => LLeMacsec (lax_of_macsec m) end.
Definition lax_of_net (n : net_slice) : lax_net_slice :=
  match n with
  | NtIpv4 v => LNtIpv4 (lax_of_v4 v)
  | NtIpv6 v => LNtIpv6 (lax_of_v6 v)
  | NtArp s => LNtArp s
  end.
Definition lax_of_packet (p : sliced_packet) : lax_sliced_packet :=
  mkLaxSliced (sp_link p) (map lax_of_ext (sp_exts p)) (option_map lax_of_net (sp_net p))
              (sp_transport p) None.

(* the observer sees the strict result, no stop error, nothing incomplete *)
Lemma strictify_lax_of p : strictify (lview (lax_of_packet p)) = view p.
Proof.
  destruct p as [l x n t]. unfold strictify, lview, lax_of_packet, view. cbn.
  f_equal.
  - rewrite !map_map. apply map_ext. intros [s|[h [e|s]]]; reflexivity.
  - destruct n as [[v|v|s]|]; reflexivity.
Qed.

Lemma complete_lax_of p : all_complete (lview (lax_of_packet p)) = true.
Proof.
  destruct p as [l x n t]. unfold all_complete, lview, lax_of_packet. cbn.
  apply andb_true_intro. split.
  - rewrite forallb_forall. intros y Hy. rewrite !map_map in Hy. apply in_map_iff in Hy.
    destruct Hy as ([s|[h [e|s]]] & <- & _); reflexivity.
  - destruct n as [[v|v|s]|]; reflexivity.
Qed.

Definition len_same (a b : len_error) : Prop :=
  le_required a = le_required b /\ le_len a = le_len b /\ le_layer a = le_layer b /\
  le_off a = le_off b /\ (le_src a = le_src b \/ le_src a = LsSlice).
Definition same_fault (e e' : slice_error) : Prop :=
  match e, e' with
  | ELen a, ELen b => len_same a b
  | EContent a, EContent b => a = b
  | _, _ => False
  end.
Lemma len_same_refl a : len_same a a.
Proof. unfold len_same. intuition. Qed.
Lemma same_fault_refl e : same_fault e e.
Proof. destruct e; cbn; [apply len_same_refl|reflexivity]. Qed.

(* The unchecked primitives never return Err. *)
Lemma rdU_not_err s i e : rdU s i = Err e -> False.
Proof. unfold rdU. destruct (rd (snd s) i); discriminate. Qed.
Lemma subU_not_err s k n e : subU s k n = Err e -> False.
Proof. unfold subU. destruct (k + n <=? s_len s); discriminate. Qed.
Lemma subN_not_err a b e : subN a b = Err e -> False.
Proof. unfold subN. destruct (b <=? a); discriminate. Qed.

(* "Never Err" is compositional: it holds of Ok, Bug and the primitives, and of a bind when it
   holds of both parts.  A function text in which no Err is written therefore never returns one;
   `ne` walks such a text, the leaves are the hints of the database `ne`. *)
Definition no_err {A} (r : res A) : Prop := forall e, r <> Err e.

Lemma no_err_iff {A} (r : res A) e (P : Prop) : no_err r -> ~ P -> (r = Err e <-> P).
Proof. intros H NP. split; [intros E; destruct (H e E)|intros HP; destruct (NP HP)]. Qed.

Lemma ne_ok {A} (a : A) : no_err (Ok a). Proof. intros e; discriminate. Qed.
Lemma ne_bug {A} b : no_err (@Bug A b). Proof. intros e; discriminate. Qed.
Lemma ne_bind {A B} (r : res A) (f : A -> res B) :
  no_err r -> (forall a, no_err (f a)) -> no_err (bind r f).
Proof. intros H1 H2 e. destruct r as [a|e0|b]; cbn [bind]; [apply H2|intros E; exact (H1 e0 eq_refl)|discriminate]. Qed.

(* behind a step that never returns Err, an Err is the Err of the first step *)
Lemma bind_err_iff {A B} (r : res A) (f : A -> res B) e :
  (forall a, no_err (f a)) -> (bind r f = Err e <-> r = Err e).
Proof.
  intros H. destruct r as [a|e0|b]; cbn [bind].
  - split; [intros E; destruct (H a e E)|discriminate].
  - split; intros E; injection E as ->; reflexivity.
  - split; discriminate.
Qed.

Lemma ne_rdU s i : no_err (rdU s i).
Proof. intros e H. exact (rdU_not_err _ _ _ H). Qed.
Lemma ne_subU s k n : no_err (subU s k n).
Proof. intros e H. exact (subU_not_err _ _ _ _ H). Qed.
Lemma ne_subN a b : no_err (subN a b).
Proof. intros e H. exact (subN_not_err _ _ _ H). Qed.
Lemma ne_rd16 s i : no_err (rd16 s i).
Proof. unfold rd16. apply ne_bind; [apply ne_rdU|]. intros hi. apply ne_bind; [apply ne_rdU|]. intros lo. apply ne_ok. Qed.
Lemma rd16_not_err s i e : rd16 s i = Err e -> False.
Proof. apply ne_rd16. Qed.

Create HintDb ne discriminated.
#[export] Hint Resolve ne_ok ne_bug ne_rdU ne_rd16 ne_subU ne_subN : ne.

Ltac ne :=
  repeat first
    [ solve [auto with ne nocore]
    | apply ne_bind; [|intros ?]
    | match goal with |- no_err (match ?x with _ => _ end) => destruct x eqn:? end ].

Ltac prim_err :=
  match goal with
  | H : rdU _ _ = Err _ |- _ => exfalso; exact (rdU_not_err _ _ _ H)
  | H : rd16 _ _ = Err _ |- _ => exfalso; exact (rd16_not_err _ _ _ H)
  | H : subU _ _ _ = Err _ |- _ => exfalso; exact (subU_not_err _ _ _ _ H)
  | H : subN _ _ = Err _ |- _ => exfalso; exact (subN_not_err _ _ _ H)
  end.

(* destruct a primitive call: the Err case is impossible, a Bug case that `exact I` or
   `discriminate` does not close is left to the caller *)
Ltac dprim X v E := destruct X as [v|?e|?b] eqn:E; cbn [bind]; [|prim_err|first [exact I|discriminate|idtac]].

Lemma subU_inv s k n s' : subU s k n = Ok s' ->
  k + n <= s_len s /\ s' = (fst s + k, take n (drop k (snd s))).
Proof.
  unfold subU. destruct (k + n <=? s_len s) eqn:E; [|discriminate].
  intros H. injection H as <-. split; [lia|reflexivity].
Qed.

Lemma subU_len s k n s' : subU s k n = Ok s' -> s_len s' = n.
Proof.
  intros H. apply subU_inv in H. destruct H as (H & ->).
  unfold s_len in *. cbn [snd]. rewrite len_take, len_drop. lia.
Qed.

Lemma subU_off s k n s' : subU s k n = Ok s' -> s_off s' = s_off s + k.
Proof. intros H. apply subU_inv in H. destruct H as (_ & ->). reflexivity. Qed.

(* what is left of s behind its first k octets ends where s ends, and is no longer *)
Lemma rest_end s k n s' :
  subN (s_len s) k = Ok n -> subU s k n = Ok s' -> s_off s' + s_len s' = s_off s + s_len s.
Proof.
  intros En Es. rewrite (subU_off _ _ _ _ Es), (subU_len _ _ _ _ Es). apply subN_inv in En. lia.
Qed.
Lemma rest_len s k n s' : subN (s_len s) k = Ok n -> subU s k n = Ok s' -> s_len s' <= s_len s.
Proof. intros En Es. rewrite (subU_len _ _ _ _ Es). apply subN_inv in En. lia. Qed.

Definition udp_fallback (e : len_error) : Prop :=
  le_layer e = LyUdpPayload \/ (le_layer e = LyUdpHeader /\ le_src e = LsUdpHeaderLen).

Lemma udp_header_shape s c : UdpSlice.header_from_slice s = Err (EContent c) -> False.
Proof.
  unfold UdpSlice.header_from_slice, lerr. destruct (s_len s <? 8); [discriminate|].
  intros H. prim_err.
Qed.

Lemma udp_lax_of_strict s :
  match UdpSlice.from_slice s with
  | Ok u => UdpSlice.from_slice_lax s = Ok u
  | Err (ELen e) =>
      (UdpSlice.header_from_slice s = Err (ELen e) /\ UdpSlice.from_slice_lax s = Err (ELen e)) \/
      (udp_fallback e /\ exists h, UdpSlice.header_from_slice s = Ok h /\ UdpSlice.from_slice_lax s = Ok s)
  | Err (EContent _) => False
  | Bug b => True
  end.
Proof.
  unfold UdpSlice.from_slice, UdpSlice.from_slice_lax.
  destruct (UdpSlice.header_from_slice s) as [h|[e|c]|b] eqn:Eh; cbn [bind];
    [|left; split; reflexivity|exact (udp_header_shape _ _ Eh)|exact I].
  unfold UdpSlice.length. dprim (rd16 h 4) l El.
  destruct (s_len s <? l) eqn:E1; cbn [orb].
  { right. split; [left; reflexivity|]. eauto. }
  destruct (l =? 0) eqn:E0.
  { assert ((l <? 8) = true) as -> by lia. reflexivity. }
  destruct (l <? 8) eqn:E8.
  { right. split; [right; split; reflexivity|]. eauto. }
  dprim (subU s 0 l) u Eu. reflexivity.
Qed.

(* which layer tag a stop error may carry for a given fault *)
Definition tag_ok (e : slice_error) (ly : layer) : Prop :=
  match e with
  | ELen l =>
      match le_layer l with
      | LyVlanHeader => ly = LyVlanHeader
      | LyMacsecHeader => ly = LyMacsecHeader
      | LyArp => ly = LyArp
      | LyIpHeader | LyIpv4Header | LyIpv6Header => ly = LyIpHeader
      | LyIpAuthHeader => ly = LyIpAuthHeader
      | LyIpv6FragHeader => ly = LyIpv6FragHeader
      | LyIpv6ExtHeader =>
          ly = LyIpv6HopByHopHeader \/ ly = LyIpv6DestOptionsHeader \/ ly = LyIpv6RouteHeader
      | LyUdpHeader => ly = LyUdpHeader
      | LyTcpHeader => ly = LyTcpHeader
      | LyIcmpv4 | LyIcmpv4Timestamp | LyIcmpv4TimestampReply => ly = LyIcmpv4
      | LyIcmpv6 => ly = LyIcmpv6
      | _ => False
      end
  | EContent c =>
      match c with
      | CeMacsecVersion | CeMacsecUnmodifiedShortLen => ly = LyMacsecHeader
      | CeIpUnsupportedVersion _ | CeIpIhl _ | CeIpv4Version _ | CeIpv4Ihl _ | CeIpv6Version _ =>
          ly = LyIpHeader
      | CeAuthZeroPayloadLen | CeIpv6AuthZeroPayloadLen => ly = LyIpAuthHeader
      | CeHopByHopNotAtStart => ly = LyIpv6HopByHopHeader
      | CeTcpDataOffset _ => ly = LyTcpHeader
      | _ => False
      end
  end.

Definition recorded (lr r' : lax_sliced_packet) (e : slice_error) : Prop :=
  exists e' ly, r' = LaxSlicedPacketCursor.with_stop lr (e', ly) /\ same_fault e e' /\ tag_ok e' ly.

Lemma recorded_same lr e ly :
  tag_ok e ly -> recorded lr (LaxSlicedPacketCursor.with_stop lr (e, ly)) e.
Proof. intros T. exists e, ly. split; [reflexivity|]. split; [apply same_fault_refl|exact T]. Qed.

Lemma fix_len_eq l off src csrc :
  csrc = src ->
  LaxSlicedPacketCursor.fix_len l off src =
  (let e1 := le_add_offset l off in
   match le_src e1 with LsSlice => le_set_src e1 csrc | _ => e1 end).
Proof. intros ->. unfold LaxSlicedPacketCursor.fix_len. cbn. destruct (le_src l); reflexivity. Qed.

Section Transport.
  Variables (c : cursor) (lc : lax_cursor) (p : ip_payload).
  Hypothesis Hoff : lc_offset lc = c_offset c.
  Hypothesis Hsrc : c_src c = ipp_src p.
  Hypothesis Hstop : lsp_stop_err (lc_result lc) = None.
  Hypothesis Hres : lc_result lc = lax_of_packet (c_result c).

  Lemma lax_set_transport t :
    LaxSlicedPacketCursor.with_transport (lc_result lc) t = lax_of_packet (set_transport c t).
  Proof. rewrite Hres. reflexivity. Qed.

  (* the lax cursor fixes a transport length error up exactly as the strict one does, so the
     recorded stop error is the strict error itself *)
  Lemma tr_fix_fix_len l : LaxSlicedPacketCursor.fix_len l (lc_offset lc) (ipp_src p) = tr_fix c l.
  Proof. rewrite Hoff. exact (fix_len_eq l (c_offset c) (ipp_src p) (c_src c) Hsrc). Qed.

  (* a check of a transport slicer fails: the lax side records the fault *)
  Ltac fin_err :=
    cbn [map_len_err bind]; eexists; split; [reflexivity|]; right;
    rewrite ?tr_fix_fix_len; apply recorded_same; cbn; auto.

  Lemma transport_sim :
    match transport_dispatch c p with
    | Ok r => LaxSlicedPacketCursor.slice_transport lc (lax_of_ipp p) = Ok (lax_of_packet r)
    | Err e =>
        exists r', LaxSlicedPacketCursor.slice_transport lc (lax_of_ipp p) = Ok r' /\
                   ((exists l, e = ELen l /\ udp_fallback l) \/ recorded (lc_result lc) r' e)
    | Bug _ => True
    end.
  Proof.
    unfold transport_dispatch, LaxSlicedPacketCursor.slice_transport, LaxSlicedPacketCursor.has_stop.
    rewrite Hstop. cbn [lax_of_ipp lipp_fragmented lipp_number lipp_slice lipp_src].
    destruct (ipp_fragmented p); cbn [orb]; [rewrite Hres; reflexivity|].
    destruct (ipp_number p =? IPN_ICMP).
    { unfold slice_icmp4, Icmpv4Slice.from_slice, lerr.
      destruct (s_len (ipp_slice p) <? 8); [fin_err|].
      dprim (rdU (ipp_slice p) 0) t0 E0. dprim (rdU (ipp_slice p) 1) t1 E1.
      destruct ((t0 =? 13) && (0 =? t1) && negb (20 =? s_len (ipp_slice p))); [fin_err|].
      destruct ((t0 =? 14) && (0 =? t1) && negb (20 =? s_len (ipp_slice p))); [fin_err|].
      cbn [map_len_err bind]. now rewrite lax_set_transport. }
    destruct (ipp_number p =? IPN_UDP).
    { unfold slice_udp. pose proof (udp_lax_of_strict (ipp_slice p)) as U.
      destruct (UdpSlice.from_slice (ipp_slice p)) as [u|[e|ce]|b]; cbn [map_len_err bind]; [| |contradiction|exact I].
      - rewrite U. now rewrite lax_set_transport.
      - destruct U as [(Uh & ->)|(Uf & h & Uh & ->)].
        + unfold UdpSlice.header_from_slice, lerr in Uh.
          destruct (s_len (ipp_slice p) <? 8); [|exfalso; prim_err].
          injection Uh as <-. fin_err.
        + eexists. split; [reflexivity|]. left. exists (tr_fix c e). split; [reflexivity|].
          unfold udp_fallback, tr_fix in *. cbn. destruct Uf as [Uf|(Uf1 & Uf2)].
          * left. destruct (le_src e); exact Uf.
          * right. rewrite Uf2. cbn. auto. }
    destruct (ipp_number p =? IPN_TCP).
    { unfold slice_tcp, TcpSlice.from_slice, lerr.
      destruct (s_len (ipp_slice p) <? 20); [fin_err|].
      dprim (rdU (ipp_slice p) 12) b12 E12.
      destruct (N.shiftr (N.land b12 240) 2 <? 20); [fin_err|].
      destruct (s_len (ipp_slice p) <? N.shiftr (N.land b12 240) 2); [fin_err|].
      cbn [map_len_err bind fst snd]. now rewrite lax_set_transport. }
    destruct (ipp_number p =? IPN_ICMPV6).
    { unfold slice_icmp6, Icmpv6Slice.from_slice, lerr.
      destruct (s_len (ipp_slice p) <? 8); [fin_err|].
      destruct (Icmpv6Slice.MAX_LEN <? s_len (ipp_slice p)); [fin_err|].
      cbn [map_len_err bind]. now rewrite lax_set_transport. }
    rewrite Hres. reflexivity.
  Qed.
End Transport.

Definition stop_is (st : option stop_error) (e : slice_error) : Prop :=
  exists ly, st = Some (e, ly) /\ tag_ok e ly.

(* How the result of a strict function sits in the result of its lax twin: what the strict one
   accepts comes back embedded and without stop error; where it rejects with e, the lax result
   is Ok with a stop error st such that P e st, and never Err. *)
Definition sim_res {A B S} (emb : A -> B) (P : slice_error -> option S -> Prop)
  (x : res A) (y : res (B * option S)) : Prop :=
  match x, y with
  | Ok v, l => l = Ok (emb v, None)
  | Err e, Ok (_, st) => P e st
  | Err _, Err _ => False
  | _, _ => True
  end.

Lemma sim_res_weaken {A B S} (emb : A -> B) (P P' : slice_error -> option S -> Prop) x y :
  (forall e st, P e st -> P' e st) -> sim_res emb P x y -> sim_res emb P' x y.
Proof. intros W. destruct x as [v|e|b], y as [[v' st]|e'|b']; cbn; auto. Qed.

(* a strict length check that the lax twin replaces by a fallback *)
Lemma sim_res_err {A B S} (emb : A -> B) (P : slice_error -> option S -> Prop) e y :
  no_err y -> (forall st, P e st) -> sim_res (A:=A) emb P (Err e) y.
Proof. intros NE H. destruct y as [[v' st]|e'|b']; cbn; [apply H|exact (NE e' eq_refl)|exact I]. Qed.

(* both sides go on with steps that agree on embedded values, never return Err, and (the lax
   one) hand the stop error through *)
Lemma sim_res_bind {A A' B B' S} (emb : A -> B) (emb' : A' -> B') (P : slice_error -> option S -> Prop)
  x y (g : A -> res A') (g' : B * option S -> res (B' * option S)) :
  sim_res emb P x y ->
  (forall v, match g v with
             | Ok v' => g' (emb v, None) = Ok (emb' v', None) | Err _ => False | Bug _ => True
             end) ->
  (forall w st, match g' (w, st) with Ok (_, st') => st' = st | Err _ => False | Bug _ => True end) ->
  sim_res emb' P (bind x g) (bind y g').
Proof.
  intros H G1 G2. destruct x as [v|e|b]; cbn [bind]; unfold sim_res in *.
  - rewrite H. cbn [bind]. specialize (G1 v). destruct (g v); [exact G1|contradiction|exact I].
  - destruct y as [[w st]|e'|b']; cbn [bind]; [|exact H|exact I].
    specialize (G2 w st). destruct (g' (w, st)) as [[w' st']|e'|b']; [now subst|contradiction|exact I].
  - exact I.
Qed.

(* the same behind a header slicer that both sides call first *)
Lemma sim_res_behind {A B S H} (emb : A -> B) (P : slice_error -> option S -> Prop) x y (h : H) :
  sim_res emb P x y ->
  match x, y with
  | Ok v, l => l = Ok (emb v, None)
  | Err e, Ok (_, st) => (exists h', Ok h = Ok h') /\ P e st
  | Err e, Err e' => e' = e /\ Ok h = Err e
  | _, _ => True
  end.
Proof. destruct x as [v|e|b], y as [[v' st]|e'|b']; cbn; eauto; contradiction. Qed.

(* what the header slicers of the extension chain can reject with *)
Lemma raw_ext_shape s e :
  Ipv6RawExtHeaderSlice.from_slice s = Err e -> exists l, e = ELen l /\ le_layer l = LyIpv6ExtHeader.
Proof.
  unfold Ipv6RawExtHeaderSlice.from_slice, lerr.
  destruct (s_len s <? 8). { intros H. injection H as <-. eauto. }
  destruct (rd (snd s) 1); cbn [bind]; [|discriminate].
  destruct (s_len s <? (n + 1) * 8). { intros H. injection H as <-. eauto. }
  intros H. prim_err.
Qed.
Lemma frag_shape s e :
  Ipv6FragmentHeaderSlice.from_slice s = Err e -> exists l, e = ELen l /\ le_layer l = LyIpv6FragHeader.
Proof.
  unfold Ipv6FragmentHeaderSlice.from_slice, lerr.
  destruct (s_len s <? 8). { intros H. injection H as <-. eauto. }
  intros H. prim_err.
Qed.
Lemma auth_shape s e :
  IpAuthHeaderSlice.from_slice s = Err e ->
  (exists l, e = ELen l /\ le_layer l = LyIpAuthHeader) \/ e = EContent CeAuthZeroPayloadLen.
Proof.
  unfold IpAuthHeaderSlice.from_slice, lerr.
  destruct (s_len s <? 12). { intros H. injection H as <-. eauto. }
  dprim (rdU s 1) pl E1.
  destruct (pl <? 1). { intros H. injection H as <-. eauto. }
  destruct (s_len s <? (pl + 2) * 4). { intros H. injection H as <-. eauto. }
  intros H. prim_err.
Qed.

Definition auth_fault (e : slice_error) : Prop :=
  match e with
  | ELen l => le_layer l = LyIpAuthHeader
  | EContent c => c = CeAuthZeroPayloadLen
  end.

Lemma v4_finish_not_err header hp src inc : no_err (LaxIpv4Slice.finish header hp src inc).
Proof.
  unfold LaxIpv4Slice.finish, Ipv4HeaderSlice.is_fragmenting_payload, Ipv4HeaderSlice.more_fragments,
    Ipv4HeaderSlice.fragments_offset, Ipv4HeaderSlice.protocol, IpAuthHeaderSlice.next_header.
  ne.
Qed.

Lemma select_payload_not_err s hl tlen : no_err (LaxIpv4Slice.select_payload s hl tlen).
Proof. unfold LaxIpv4Slice.select_payload. ne. Qed.
#[export] Hint Resolve v4_finish_not_err select_payload_not_err : ne.

Lemma v4_finish_sim header hp :
  sim_res lax_of_v4 (fun e st => st = Some e /\ auth_fault e)
    (Ipv4Slice.finish header hp) (LaxIpv4Slice.finish header hp LsIpv4HeaderTotalLen false).
Proof.
  unfold sim_res, Ipv4Slice.finish, LaxIpv4Slice.finish.
  unfold Ipv4HeaderSlice.is_fragmenting_payload, Ipv4HeaderSlice.more_fragments,
    Ipv4HeaderSlice.fragments_offset, Ipv4HeaderSlice.protocol.
  dprim (rdU header 6) b6 E6. dprim (rdU header 7) b7 E7.
  dprim (rdU header 9) proto E9.
  destruct (proto =? IPN_AUTH); [|reflexivity].
  destruct (IpAuthHeaderSlice.from_slice hp) as [auth|e|b] eqn:Ea; cbn [bind]; [| |exact I].
  - dprim (subN (s_len hp) (s_len auth)) n En.
    dprim (subU hp (s_len auth) n) payload Ep.
    unfold IpAuthHeaderSlice.next_header. dprim (rdU auth 0) nh Enh.
    reflexivity.
  - destruct (auth_shape _ _ Ea) as [(l & -> & Hl)| ->]; cbn [bind].
    + split; [reflexivity|exact Hl].
    + split; reflexivity.
Qed.

Definition v4_len_fallback (e : slice_error) : Prop :=
  exists l, e = ELen l /\ le_layer l = LyIpv4Packet.

Lemma ipv4_sim s :
  match Ipv4Slice.from_slice s, LaxIpv4Slice.from_slice s with
  | Ok v, l => l = Ok (lax_of_v4 v, None)
  | Err e, Ok (v', st) =>
      (exists h, Ipv4HeaderSlice.from_slice s = Ok h) /\
      (v4_len_fallback e \/ (st = Some e /\ auth_fault e))
  | Err e, Err e' => e' = e /\ Ipv4HeaderSlice.from_slice s = Err e
  | Err _, Bug _ => True
  | Bug _, _ => True
  end.
Proof.
  unfold Ipv4Slice.from_slice, LaxIpv4Slice.from_slice.
  destruct (Ipv4HeaderSlice.from_slice s) as [header|e|b] eqn:Eh; cbn [bind];
    [|split; reflexivity|exact I].
  apply sim_res_behind.
  unfold Ipv4HeaderSlice.total_len. dprim (rd16 header 2) tlen Etl.
  unfold LaxIpv4Slice.select_payload, lerr.
  destruct (tlen <? s_len header).
  { apply sim_res_err; [ne|]. intros st. left. eexists. split; reflexivity. }
  destruct (s_len s <? tlen).
  { apply sim_res_err; [ne|]. intros st. left. eexists. split; reflexivity. }
  dprim (subN tlen (s_len header)) n En.
  dprim (subU s (s_len header) n) hp Ehp.
  eapply sim_res_weaken; [|apply v4_finish_sim]. intros e st; auto.
Qed.

(* sim_res for the walkers of the extension chain, together with where the rest they hand
   back ends (`rest_of` picks it out of the value) *)
Definition sim_end {V} (rest_of : V -> slice) (e : N) (x : res V) (y : res (V * option stop_error))
  : Prop :=
  sim_res (fun w => w) (fun er st => stop_is st er) x y /\
  match y with Ok (w, _) => s_off (rest_of w) + s_len (rest_of w) = e | _ => True end.

(* both sides take the same step *)
Lemma sim_end_step {V C} (ro : V -> slice) e (c : res C) gx gy :
  no_err c -> (forall v, c = Ok v -> sim_end ro e (gx v) (gy v)) ->
  sim_end ro e (bind c gx) (bind c gy).
Proof.
  intros NE H. destruct c as [v|er|b]; cbn [bind];
    [exact (H v eq_refl)|destruct (NE er eq_refl)|split; exact I].
Qed.

(* both sides go on with steps that agree, never return Err, and (the lax one) hand the stop
   error and the rest through *)
Lemma sim_end_bind {V V'} (ro : V -> slice) (ro' : V' -> slice) e x y
    (g : V -> res V') (g' : V * option stop_error -> res (V' * option stop_error)) :
  sim_end ro e x y ->
  (forall v, match g v with
             | Ok v' => g' (v, None) = Ok (v', None) | Err _ => False | Bug _ => True
             end) ->
  (forall w st, match g' (w, st) with
                | Ok (w', st') => (st', ro' w') = (st, ro w) | Err _ => False | Bug _ => True
                end) ->
  sim_end ro' e (bind x g) (bind y g').
Proof.
  intros (S & E) G1 G2. split.
  - eapply sim_res_bind; [exact S|exact G1|]. intros w st. specialize (G2 w st).
    destruct (g' (w, st)) as [[w' st']|e'|b']; [now injection G2|exact G2|exact I].
  - destruct y as [[w st]|e'|b']; cbn [bind]; [|exact I|exact I]. specialize (G2 w st).
    destruct (g' (w, st)) as [[w' st']|e'|b']; [|exact I|exact I].
    injection G2 as _ ->. exact E.
Qed.

(* `s_len rest <= start_len` holds along the chain; without it the strict walk alone would
   return Bug where it computes the offset of the next header *)
Lemma walk_spec fuel : forall start_len rest nh fr, s_len rest <= start_len ->
  sim_end (fun w => fst (fst w)) (s_off rest + s_len rest)
    (Ipv6ExtensionsSlice.walk fuel start_len rest nh fr) (LaxIpv6Exts.walk fuel start_len rest nh fr).
Proof.
  induction fuel as [|f IH]; intros start_len rest nh fr Hle; [split; exact I|].
  assert (Step : forall k n rest' nh' fr', subN (s_len rest) k = Ok n -> subU rest k n = Ok rest' ->
            sim_end (fun w => fst (fst w)) (s_off rest + s_len rest)
              (Ipv6ExtensionsSlice.walk f start_len rest' nh' fr')
              (LaxIpv6Exts.walk f start_len rest' nh' fr')).
  { intros k n rest' nh' fr' En Er. rewrite <- (rest_end _ _ _ _ En Er). apply IH.
    exact (N.le_trans _ _ _ (rest_len _ _ _ _ En Er) Hle). }
  cbn [Ipv6ExtensionsSlice.walk LaxIpv6Exts.walk].
  rewrite (subN_ok start_len (s_len rest) Hle). cbn [bind].
  destruct (nh =? IPN_HOP_BY_HOP). { split; [|reflexivity]. eexists. split; reflexivity. }
  destruct ((nh =? IPN_DEST_OPTIONS) || (nh =? IPN_ROUTE)).
  { destruct (Ipv6RawExtHeaderSlice.from_slice rest) as [sl|e|b] eqn:Es; cbn [map_len_err bind].
    - apply sim_end_step; [ne|intros n En]. apply sim_end_step; [ne|intros rest' Er].
      apply sim_end_step; [unfold Ipv6RawExtHeaderSlice.next_header; ne|intros nh' _].
      exact (Step _ _ _ _ _ En Er).
    - destruct (raw_ext_shape _ _ Es) as (l & -> & Hl). cbn [map_len_err bind].
      split; [|reflexivity]. eexists. split; [reflexivity|]. cbn. rewrite Hl.
      destruct (nh =? IPN_DEST_OPTIONS); auto.
    - split; exact I. }
  destruct (nh =? IPN_FRAG).
  { destruct (Ipv6FragmentHeaderSlice.from_slice rest) as [sl|e|b] eqn:Es; cbn [map_len_err bind].
    - apply sim_end_step; [ne|intros n En]. apply sim_end_step; [ne|intros rest' Er].
      apply sim_end_step; [unfold Ipv6FragmentHeaderSlice.next_header; ne|intros nh' _].
      apply sim_end_step; [|intros fr' _].
      { unfold Ipv6FragmentHeaderSlice.is_fragmenting_payload, Ipv6FragmentHeaderSlice.more_fragments,
          Ipv6FragmentHeaderSlice.fragment_offset. ne. }
      exact (Step _ _ _ _ _ En Er).
    - destruct (frag_shape _ _ Es) as (l & -> & Hl). cbn [map_len_err bind].
      split; [|reflexivity]. eexists. split; [reflexivity|]. cbn. rewrite Hl. reflexivity.
    - split; exact I. }
  destruct (nh =? IPN_AUTH).
  { destruct (IpAuthHeaderSlice.from_slice rest) as [sl|e|b] eqn:Es; cbn [bind].
    - apply sim_end_step; [ne|intros n En]. apply sim_end_step; [ne|intros rest' Er].
      apply sim_end_step; [unfold IpAuthHeaderSlice.next_header; ne|intros nh' _].
      exact (Step _ _ _ _ _ En Er).
    - destruct (auth_shape _ _ Es) as [(l & -> & Hl)| ->]; cbn [bind].
      + split; [|reflexivity]. eexists. split; [reflexivity|]. cbn. rewrite Hl. reflexivity.
      + split; [|reflexivity]. eexists. split; reflexivity.
    - split; exact I. }
  split; reflexivity.
Qed.

Lemma lax_walk_not_err fuel : forall start_len rest nh fr,
  no_err (LaxIpv6Exts.walk fuel start_len rest nh fr).
Proof.
  induction fuel as [|f IH]; intros start_len rest nh fr; cbn [LaxIpv6Exts.walk]; [apply ne_bug|].
  unfold Ipv6RawExtHeaderSlice.next_header, Ipv6FragmentHeaderSlice.next_header,
    IpAuthHeaderSlice.next_header, Ipv6FragmentHeaderSlice.is_fragmenting_payload,
    Ipv6FragmentHeaderSlice.more_fragments, Ipv6FragmentHeaderSlice.fragment_offset.
  ne.
Qed.
#[export] Hint Resolve lax_walk_not_err : ne.

Lemma ne_lax_exts nh s : no_err (LaxIpv6Exts.from_slice_lax nh s).
Proof. unfold LaxIpv6Exts.from_slice_lax, Ipv6RawExtHeaderSlice.next_header. ne. Qed.
#[export] Hint Resolve ne_lax_exts : ne.

Lemma lax_exts_not_err nh s e : LaxIpv6Exts.from_slice_lax nh s = Err e -> False.
Proof. apply ne_lax_exts. Qed.

Lemma exts_spec nh s :
  sim_end snd (s_off s + s_len s)
    (Ipv6ExtensionsSlice.from_slice nh s) (LaxIpv6Exts.from_slice_lax nh s).
Proof.
  unfold Ipv6ExtensionsSlice.from_slice, LaxIpv6Exts.from_slice_lax.
  destruct (IPN_HOP_BY_HOP =? nh).
  - destruct (Ipv6RawExtHeaderSlice.from_slice s) as [sl|e|b] eqn:Es; cbn [bind].
    + destruct (s_len sl <=? s_len s) eqn:Ele; cbn [bind]; [|split; exact I].
      unfold Ipv6RawExtHeaderSlice.next_header.
      destruct (rdU sl 0) as [nh'|e|b] eqn:Enh; cbn [bind]; [|prim_err|split; exact I].
      set (rest0 := (fst s + s_len sl, drop (s_len sl) (snd s))).
      assert (H0 : s_len rest0 <= s_len s /\ s_off rest0 + s_len rest0 = s_off s + s_len s).
      { unfold rest0, s_off, s_len in *. cbn [fst snd]. rewrite len_drop. lia. }
      destruct H0 as (Hle & <-).
      (* behind the walk both sides only cut the extension block out of `s` *)
      eapply sim_end_bind; [exact (walk_spec _ _ _ _ _ Hle)|intros [[r n0] f0]|intros [[r n0] f0] st].
      all: dprim (subN (s_len s) (s_len r)) used Eu.
      all: destruct (used <=? s_len s); cbn [bind]; [reflexivity|exact I].
    + destruct (raw_ext_shape _ _ Es) as (l & -> & Hl). cbn [bind].
      rewrite (subN_ok (s_len s) (s_len s) (N.le_refl _)). cbn [bind].
      destruct (s_len s - s_len s <=? s_len s); cbn [bind]; [|split; exact I].
      split; [|reflexivity]. eexists. split; [reflexivity|]. cbn. rewrite Hl. auto.
    + split; exact I.
  - cbn [bind].
    eapply sim_end_bind;
      [exact (walk_spec _ _ _ _ _ (N.le_refl _))|intros [[r n0] f0]|intros [[r n0] f0] st].
    all: dprim (subN (s_len s) (s_len r)) used Eu.
    all: destruct (used <=? s_len s); cbn [bind]; [reflexivity|exact I].
Qed.

Lemma exts_sim nh s :
  match Ipv6ExtensionsSlice.from_slice nh s, LaxIpv6Exts.from_slice_lax nh s with
  | Ok w, l => l = Ok (w, None)
  | Err e, Ok (_, st) => exists ly, st = Some (e, ly) /\ tag_ok e ly
  | Err _, Err _ => False
  | _, _ => True
  end.
Proof. exact (proj1 (exts_spec nh s)). Qed.

Definition strict_v6_tail (header hp : slice) (src : len_source) : res ipv6_slice :=
  let* nh := Ipv6HeaderSlice.next_header header in
  let* x :=
    match Ipv6ExtensionsSlice.from_slice nh hp with
    | Err (ELen e) => Err (ELen (le_add_offset (le_set_src e src) 40))
    | r => r
    end in
  let '(exts, payload_ip_number, payload) := x in
  Ok (mkIpv6Slice header exts (mkIpPayload payload_ip_number (x6_fragmented exts) src payload)).

Lemma v6_finish_not_err header hp src inc : no_err (LaxIpv6Slice.finish header hp src inc).
Proof. unfold LaxIpv6Slice.finish, Ipv6HeaderSlice.next_header. ne. Qed.
#[export] Hint Resolve v6_finish_not_err : ne.

Lemma v6_tail_sim header hp src :
  sim_res lax_of_v6 (fun e st => stop_is st e)
    (strict_v6_tail header hp src) (LaxIpv6Slice.finish header hp src false).
Proof.
  unfold sim_res, strict_v6_tail, LaxIpv6Slice.finish, Ipv6HeaderSlice.next_header.
  dprim (rdU header 6) nh Enh.
  pose proof (exts_sim nh hp) as X.
  destruct (Ipv6ExtensionsSlice.from_slice nh hp) as [[[x n] r]|e|b].
  - rewrite X. reflexivity.
  - destruct (LaxIpv6Exts.from_slice_lax nh hp) as [[[[x n] r] st]|e0|b0]; cbn [bind].
    + destruct X as (ly & -> & T). destruct e as [l|c]; cbn [bind]; exists ly; split; auto.
    + destruct e; cbn [bind]; exact X.
    + destruct e; exact I.
  - exact I.
Qed.

Definition v6_len_fallback (e : slice_error) : Prop :=
  exists l, e = ELen l /\ le_layer l = LyIpv6Packet.

(* Ipv6Slice.finish against the lax continuation; `c` is the way the lax copy
   writes the "more announced than present" test *)
Lemma v6_finish_sim s header (c : N -> res bool) :
  (forall pl, c pl = Ok (s_len s <? 40 + pl)) ->
  sim_res lax_of_v6 (fun e st => v6_len_fallback e \/ stop_is st e)
    (Ipv6Slice.finish s header)
    (let* pl := Ipv6HeaderSlice.payload_length header in
     let* t :=
       (if (0 =? pl) && (40 <? s_len s) then
          let* n := subN (s_len s) 40 in
          let* p := subU s 40 n in
          Ok (p, LsSlice, false)
        else
          let* b := c pl in
          if b then
            let* n := subN (s_len s) 40 in
            let* p := subU s 40 n in
            Ok (p, LsSlice, true)
          else
            let* p := subU s 40 pl in
            Ok (p, LsIpv6HeaderPayloadLen, false)) in
     let '(header_payload, src, incomplete) := t in
     LaxIpv6Slice.finish header header_payload src incomplete).
Proof.
  intros Hc. unfold Ipv6Slice.finish, Ipv6HeaderSlice.payload_length.
  dprim (rd16 header 4) pl Epl.
  assert (T : forall hp src, sim_res lax_of_v6 (fun e st => v6_len_fallback e \/ stop_is st e)
                (strict_v6_tail header hp src) (LaxIpv6Slice.finish header hp src false)).
  { intros hp src. eapply sim_res_weaken; [|apply v6_tail_sim]. intros e st; auto. }
  destruct ((0 =? pl) && (40 <? s_len s)).
  { dprim (subN (s_len s) 40) n En. dprim (subU s 40 n) hp Ehp. apply T. }
  rewrite Hc. cbn [bind].
  destruct (s_len s <? 40 + pl).
  { cbn [bind]. unfold lerr. apply sim_res_err; [ne|].
    intros st. left. eexists. split; reflexivity. }
  dprim (subU s 40 pl) hp Ehp. apply T.
Qed.

Lemma ipv6_sim s :
  match Ipv6Slice.from_slice s, LaxIpv6Slice.from_slice s with
  | Ok v, l => l = Ok (lax_of_v6 v, None)
  | Err e, Ok (_, st) =>
      (exists h, Ipv6HeaderSlice.from_slice s = Ok h) /\ (v6_len_fallback e \/ stop_is st e)
  | Err e, Err e' => e' = e /\ Ipv6HeaderSlice.from_slice s = Err e
  | _, _ => True
  end.
Proof.
  unfold Ipv6Slice.from_slice, LaxIpv6Slice.from_slice.
  destruct (Ipv6HeaderSlice.from_slice s) as [header|e|b] eqn:Eh; cbn [bind];
    [|split; reflexivity|exact I].
  apply sim_res_behind.
  exact (v6_finish_sim s header (fun pl => Ok (s_len s <? 40 + pl)) (fun _ => eq_refl)).
Qed.

(* LaxIpSlice.from_slice is the dispatch to the two specific lax slicers *)
Definition wrap4 (r : res (lax_ipv4_slice * option slice_error))
  : res (lax_ip_slice * option stop_error) :=
  let* x := r in
  let '(v, stop) := x in
  Ok (LIpV4 v,
      match stop with
      | Some (ELen l) => Some (ELen l, LyIpAuthHeader)
      | Some (EContent _) => Some (EContent CeIpv6AuthZeroPayloadLen, LyIpAuthHeader)
      | None => None
      end).
Definition wrap6 (r : res (lax_ipv6_slice * option stop_error))
  : res (lax_ip_slice * option stop_error) :=
  let* x := r in let '(v, stop) := x in Ok (LIpV6 v, stop).

Lemma laxip_v4_arm s header :
  Ipv4HeaderSlice.from_slice s = Ok header ->
  LaxIpSlice.from_slice s = wrap4 (LaxIpv4Slice.from_slice s).
Proof.
  intros H. unfold LaxIpSlice.from_slice, LaxIpv4Slice.from_slice. rewrite H. cbn [bind].
  revert H. unfold Ipv4HeaderSlice.from_slice, lerr.
  destruct (s_len s <? 20) eqn:E20; [discriminate|].
  dprim (rdU s 0) v E0.
  destruct (N.shiftr v 4 =? 4) eqn:Ev; cbn [negb]; [|discriminate].
  destruct (N.land v 15 <? 5) eqn:Ei; [discriminate|].
  destruct (s_len s <? N.land v 15 * 4) eqn:El; [discriminate|].
  intros Hs.
  assert ((s_len s =? 0) = false) as -> by lia.
  rewrite Hs. cbn [bind]. rewrite (subU_len _ _ _ _ Hs).
  unfold wrap4.
  destruct (Ipv4HeaderSlice.total_len header) as [tlen|e|b]; cbn [bind]; try reflexivity.
  destruct (LaxIpv4Slice.select_payload s (N.land v 15 * 4) tlen) as [[[hp src] inc]|e|b];
    cbn [bind]; try reflexivity.
Qed.

Lemma laxip_v6_arm s header :
  Ipv6HeaderSlice.from_slice s = Ok header ->
  LaxIpSlice.from_slice s = wrap6 (LaxIpv6Slice.from_slice s).
Proof.
  intros H. unfold LaxIpSlice.from_slice, LaxIpv6Slice.from_slice. rewrite H. cbn [bind].
  revert H. unfold Ipv6HeaderSlice.from_slice, lerr.
  destruct (s_len s <? 40) eqn:E40; [discriminate|].
  dprim (rdU s 0) v E0.
  destruct (N.shiftr v 4 =? 6) eqn:Ev; cbn [negb]; [|discriminate].
  intros Hs.
  assert ((s_len s =? 0) = false) as -> by lia.
  assert ((N.shiftr v 4 =? 4) = false) as -> by lia.
  rewrite Hs. cbn [bind]. unfold wrap6.
  destruct (Ipv6HeaderSlice.payload_length header) as [pl|e|b]; cbn [bind]; try reflexivity.
  rewrite (subN_ok (s_len s) 40) by lia. cbn [bind].
  assert ((s_len s - 40 <? pl) = (s_len s <? 40 + pl)) as -> by lia.
  destruct ((0 =? pl) && (40 <? s_len s)); [|destruct (s_len s <? 40 + pl)].
  all: match goal with |- bind ?T _ = _ => destruct T as [[[hp src] inc]|e|b] end; cbn [bind]; reflexivity.
Qed.

Lemma ipslice_sim s :
  match IpSlice.from_slice s with
  | Ok i => LaxIpSlice.from_slice s = Ok (lax_of_ip i, None)
  | _ => True
  end.
Proof.
  unfold IpSlice.from_slice, LaxIpSlice.from_slice, lerr.
  destruct (s_len s =? 0) eqn:E0; [exact I|].
  dprim (rdU s 0) v Ev.
  destruct (N.shiftr v 4 =? 4).
  { destruct (N.land v 15 <? 5); [exact I|].
    destruct (s_len s <? N.land v 15 * 4) eqn:El; [exact I|].
    dprim (subU s 0 (N.land v 15 * 4)) header Eh.
    unfold Ipv4HeaderSlice.total_len. dprim (rd16 header 2) tlen Etl.
    unfold LaxIpv4Slice.select_payload.
    destruct (tlen <? N.land v 15 * 4); [exact I|].
    destruct (s_len s <? tlen); [exact I|].
    dprim (subN tlen (N.land v 15 * 4)) n En.
    dprim (subU s (N.land v 15 * 4) n) hp Ehp.
    pose proof (v4_finish_sim header hp) as F.
    destruct (Ipv4Slice.finish header hp) as [v4|e|b]; cbn [bind]; [|exact I|exact I].
    rewrite F. reflexivity. }
  destruct (N.shiftr v 4 =? 6); [|exact I].
  destruct (s_len s <? 40) eqn:E40; [exact I|].
  dprim (subU s 0 40) header Eh.
  pose proof (v6_finish_sim s header (fun pl => Ok (s_len s <? 40 + pl)) (fun _ => eq_refl)) as F.
  destruct (Ipv6Slice.finish s header) as [v6|e|b]; cbn [bind]; [|exact I|exact I].
  revert F.
  destruct (Ipv6HeaderSlice.payload_length header) as [pl|e|b]; cbn [bind]; [|discriminate|discriminate].
  rewrite (subN_ok (s_len s) 40) by lia. cbn [bind].
  assert ((s_len s - 40 <? pl) = (s_len s <? 40 + pl)) as -> by lia.
  destruct ((0 =? pl) && (40 <? s_len s)); [|destruct (s_len s <? 40 + pl)].
  - dprim (subU s 40 (s_len s - 40)) p Ep. intros F. rewrite F. reflexivity.
  - dprim (subU s 40 (s_len s - 40)) p Ep. intros F. rewrite F. reflexivity.
  - dprim (subU s 40 pl) p Ep. intros F. rewrite F. reflexivity.
Qed.

Lemma rdU_sub_prefix s n h i : subU s 0 n = Ok h -> i < n -> rdU h i = rdU s i.
Proof.
  intros H Hi. apply subU_inv in H. destruct H as (Hn & ->).
  unfold rdU, rd, take, drop. cbn [snd N.to_nat skipn].
  rewrite nth_error_firstn_lt by lia. reflexivity.
Qed.

Lemma macsec_header_len s h :
  Macsec.header_from_slice s = Ok h -> Macsec.header_len h = Ok (s_len h).
Proof.
  unfold Macsec.header_from_slice, lerr.
  destruct (s_len s <? 6) eqn:E6; [discriminate|].
  dprim (rdU s 0) tci Et.
  destruct (Macsec.bit tci 128); [discriminate|].
  match goal with |- bind ?X _ = _ -> _ => destruct X as [u|e|b]; cbn [bind]; [|discriminate|discriminate] end.
  set (req := 6 + (if N.land tci 12 =? 0 then 2 else 0) + (if Macsec.bit tci 32 then 8 else 0)).
  destruct (s_len s <? req) eqn:Er; [discriminate|].
  intros Hs. unfold Macsec.header_len, Macsec.sci_present, Macsec.is_unmodified, Macsec.tci_an_raw.
  assert (Hreq : 0 < req) by (subst req; lia).
  rewrite (rdU_sub_prefix s req h 0 Hs Hreq), Et. cbn [bind].
  rewrite (subU_len _ _ _ _ Hs). subst req. f_equal.
  destruct (N.land tci 12 =? 0), (Macsec.bit tci 32); lia.
Qed.

Lemma macsec_sim s :
  match Macsec.from_slice s with
  | Ok m => LaxMacsecSlice.from_slice s = Ok (lax_of_macsec m)
  | _ => True
  end.
Proof.
  unfold Macsec.from_slice, LaxMacsecSlice.from_slice.
  destruct (Macsec.header_from_slice s) as [h|e|b] eqn:Eh; cbn [bind]; [|exact I|exact I].
  rewrite (macsec_header_len s h Eh).
  destruct (Macsec.expected_payload_len h) as [[req|]|e|b]; cbn [bind]; try exact I.
  - unfold lerr. destruct (s_len s <? s_len h + req); cbn [bind]; [exact I|].
    dprim (subU s (s_len h) req) p Ep.
    destruct (Macsec.next_ether_type h) as [[et|]|e|b]; cbn [bind]; try exact I; reflexivity.
  - dprim (subN (s_len s) (s_len h)) n En. dprim (subU s (s_len h) n) p Ep.
    destruct (Macsec.next_ether_type h) as [[et|]|e|b]; cbn [bind]; try exact I; reflexivity.
Qed.

Definition sim (c : cursor) (lc : lax_cursor) : Prop :=
  lc_result lc = lax_of_packet (c_result c) /\ lc_offset lc = c_offset c.

Lemma v4_header_ok s v : Ipv4Slice.from_slice s = Ok v -> exists h, Ipv4HeaderSlice.from_slice s = Ok h.
Proof.
  unfold Ipv4Slice.from_slice. destruct (Ipv4HeaderSlice.from_slice s); cbn [bind]; try discriminate. eauto.
Qed.
Lemma v6_header_ok s v : Ipv6Slice.from_slice s = Ok v -> exists h, Ipv6HeaderSlice.from_slice s = Ok h.
Proof.
  unfold Ipv6Slice.from_slice. destruct (Ipv6HeaderSlice.from_slice s); cbn [bind]; try discriminate. eauto.
Qed.

Lemma ip_tail_sim c lc s ip (n : net_slice) (ln : lax_net_slice) :
  sim c lc -> ln = lax_of_net n ->
  LaxSlicedPacketCursor.net_of_ip (lax_of_ip ip) = ln ->
  match (let* d := ptr_diff (ipp_slice (IpSlice.payload ip)) s in
         transport_dispatch (set_net c (c_offset c + d) (ipp_src (IpSlice.payload ip)) n)
                            (IpSlice.payload ip)) with
  | Ok r =>
      (let r1 := LaxSlicedPacketCursor.with_net (lc_result lc) ln in
       let payload := LaxIpSlice.payload (lax_of_ip ip) in
       let* d := LaxSlicedPacketCursor.ptr_diff (lipp_slice payload) s in
       let src' := if is_slice_src (lipp_src payload) then lc_src lc else lipp_src payload in
       LaxSlicedPacketCursor.slice_transport (mkLaxCursor (lc_offset lc + d) src' r1) payload)
      = Ok (lax_of_packet r)
  | _ => True
  end.
Proof.
  intros (Hres & Hoff) -> Hn.
  assert (Hp : LaxIpSlice.payload (lax_of_ip ip) = lax_of_ipp (IpSlice.payload ip)) by (destruct ip; reflexivity).
  cbv zeta. rewrite Hp. cbn [lax_of_ipp lipp_slice lipp_src].
  unfold ptr_diff, LaxSlicedPacketCursor.ptr_diff.
  dprim (subN (s_off (ipp_slice (IpSlice.payload ip))) (s_off s)) d Ed.
  set (c' := set_net c (c_offset c + d) (ipp_src (IpSlice.payload ip)) n).
  set (lc' := mkLaxCursor _ _ _).
  pose proof (transport_sim c' lc' (IpSlice.payload ip)) as T.
  assert (H1 : lc_offset lc' = c_offset c') by (subst lc' c'; cbn; rewrite Hoff; reflexivity).
  assert (H2 : c_src c' = ipp_src (IpSlice.payload ip)) by reflexivity.
  assert (H3 : lsp_stop_err (lc_result lc') = None) by (subst lc'; cbn; rewrite Hres; reflexivity).
  assert (H4 : lc_result lc' = lax_of_packet (c_result c')) by (subst lc' c'; cbn; rewrite Hres; reflexivity).
  specialize (T H1 H2 H3 H4).
  destruct (transport_dispatch c' (IpSlice.payload ip)); [exact T|exact I|exact I].
Qed.

Module L := LaxSlicedPacketCursor.

Lemma lax_slice_ip_ok lc s ip :
  LaxIpSlice.from_slice s = Ok (ip, None) ->
  L.slice_ip lc s =
  (let r1 := L.with_net (lc_result lc) (L.net_of_ip ip) in
   let payload := LaxIpSlice.payload ip in
   let* d := L.ptr_diff (lipp_slice payload) s in
   let src' := if is_slice_src (lipp_src payload) then lc_src lc else lipp_src payload in
   L.slice_transport (mkLaxCursor (lc_offset lc + d) src' r1) payload).
Proof. intros H. unfold L.slice_ip. rewrite H. reflexivity. Qed.

Lemma ipv4_cursor_sim c lc s :
  sim c lc ->
  match slice_ipv4 c s with
  | Ok r => L.slice_ip lc s = Ok (lax_of_packet r)
  | _ => True
  end.
Proof.
  intros S. unfold slice_ipv4.
  pose proof (ipv4_sim s) as V.
  destruct (Ipv4Slice.from_slice s) as [v|e|b] eqn:Ev; cbn [map_len_err bind];
    [|destruct e; exact I|exact I].
  destruct (v4_header_ok s v Ev) as (h & Hh).
  rewrite (lax_slice_ip_ok lc s (LIpV4 (lax_of_v4 v)))
    by (rewrite (laxip_v4_arm s h Hh), V; reflexivity).
  exact (ip_tail_sim c lc s (IpV4 v) (NtIpv4 v) _ S eq_refl eq_refl).
Qed.

Lemma ipv6_cursor_sim c lc s :
  sim c lc ->
  match slice_ipv6 c s with
  | Ok r => L.slice_ip lc s = Ok (lax_of_packet r)
  | _ => True
  end.
Proof.
  intros S. unfold slice_ipv6.
  pose proof (ipv6_sim s) as V.
  destruct (Ipv6Slice.from_slice s) as [v|e|b] eqn:Ev; cbn [map_len_err bind];
    [|destruct e; exact I|exact I].
  destruct (v6_header_ok s v Ev) as (h & Hh).
  rewrite (lax_slice_ip_ok lc s (LIpV6 (lax_of_v6 v)))
    by (rewrite (laxip_v6_arm s h Hh), V; reflexivity).
  exact (ip_tail_sim c lc s (IpV6 v) (NtIpv6 v) _ S eq_refl eq_refl).
Qed.

Lemma arp_cursor_sim c lc s :
  sim c lc ->
  match slice_arp c s with
  | Ok r => L.slice_arp lc s = Ok (lax_of_packet r)
  | _ => True
  end.
Proof.
  intros (Hres & Hoff). unfold slice_arp, L.slice_arp.
  destruct (ArpPacketSlice.from_slice s) as [a|[l|ce]|b]; cbn [map_len_err bind]; try exact I.
  rewrite Hres. reflexivity.
Qed.

Lemma ether_sim : forall fuel c lc ep lep,
  sim c lc -> ep_ether_type lep = ep_ether_type ep -> ep_slice lep = ep_slice ep ->
  match slice_ether_type_loop fuel c ep with
  | Ok r => L.slice_ether_type_loop fuel lc lep = Ok (lax_of_packet r)
  | _ => True
  end.
Proof.
  induction fuel as [|f IH]; intros c lc ep lep S Het Hsl; [exact I|].
  pose proof S as (Hres & Hoff).
  cbn [slice_ether_type_loop L.slice_ether_type_loop]. rewrite Het, Hsl.
  unfold L.is_vlan_type.
  assert (Hlen : len (lsp_exts (lc_result lc)) = len (sp_exts (c_result c))).
  { rewrite Hres. cbn. apply len_map. }
  rewrite Hlen.
  destruct (is_vlan_type (ep_ether_type ep)).
  { destruct (LINK_EXTS_CAP <=? len (sp_exts (c_result c))) eqn:Ecap; [now rewrite Hres|].
    destruct (SingleVlanSlice.from_slice (ep_slice ep)) as [vlan|[l|ce]|b]; cbn [map_len_err bind]; try exact I.
    destruct (SingleVlanSlice.payload vlan) as [vp|e|b]; cbn [bind]; try exact I.
    unfold push_ext, L.push_ext. rewrite Hlen.
    destruct (len (sp_exts (c_result c)) <? LINK_EXTS_CAP); cbn [bind]; [|exact I].
    apply IH; [|reflexivity|reflexivity].
    split; cbn; [|now rewrite Hoff]. rewrite Hres. unfold lax_of_packet. cbn. now rewrite map_app. }
  destruct (ep_ether_type ep =? ET_MACSEC).
  { destruct (LINK_EXTS_CAP <=? len (sp_exts (c_result c))) eqn:Ecap; [now rewrite Hres|].
    pose proof (macsec_sim (ep_slice ep)) as M.
    destruct (Macsec.from_slice (ep_slice ep)) as [m|[l|ce]|b]; cbn [map_len_err bind]; try exact I.
    rewrite M. cbn [lax_of_macsec lms_header lms_payload].
    destruct (Macsec.header_len (ms_header m)) as [hl|e|b]; cbn [bind]; try exact I.
    destruct (Macsec.short_len (ms_header m)) as [sl|e|b]; cbn [bind]; try exact I.
    unfold push_ext, L.push_ext. rewrite Hlen.
    destruct (len (sp_exts (c_result c)) <? LINK_EXTS_CAP); cbn [bind]; [|exact I].
    destruct (ms_payload m) as [e|pl] eqn:Emp.
    - apply IH; [|reflexivity|reflexivity].
      split; cbn; [|now rewrite Hoff]. rewrite Hres. unfold lax_of_packet. cbn. rewrite map_app. cbn.
      unfold lax_of_macsec. rewrite Emp. reflexivity.
    - cbn. rewrite Hres. unfold lax_of_packet. cbn. rewrite map_app. cbn.
      unfold lax_of_macsec. rewrite Emp. reflexivity. }
  destruct (ep_ether_type ep =? ET_ARP); [now apply arp_cursor_sim|].
  destruct (ep_ether_type ep =? ET_IPV4); [now apply ipv4_cursor_sim|].
  destruct (ep_ether_type ep =? ET_IPV6); [now apply ipv6_cursor_sim|].
  now rewrite Hres.
Qed.

(* (a) for the whole-packet entry points *)
Theorem from_ethernet_extends bs r :
  SlicedPacket.from_ethernet bs = Ok r -> LaxSlicedPacket.from_ethernet bs = Ok (lax_of_packet r).
Proof.
  unfold SlicedPacket.from_ethernet, LaxSlicedPacket.from_ethernet, slice_ethernet2,
    L.parse_from_ethernet2.
  destruct (Ethernet2Slice.from_slice_without_fcs (mk_slice bs)) as [e2|[l|ce]|b];
    cbn [map_len_err bind]; try discriminate.
  destruct (Ethernet2Slice.payload e2) as [ep|e|b]; cbn [bind]; try discriminate.
  unfold slice_ether_type, L.slice_ether_type. intros H.
  pose proof (ether_sim 5 (set_link new (c_offset new + Ethernet2Slice.header_len) (LkEthernet2 e2))
                (mkLaxCursor (0 + Ethernet2Slice.header_len) LsSlice (L.with_link L.empty (LkEthernet2 e2)))
                ep ep) as E.
  rewrite H in E. apply E; [split; reflexivity|reflexivity|reflexivity].
Qed.

Theorem from_ether_type_extends et bs r :
  SlicedPacket.from_ether_type et bs = Ok r ->
  LaxSlicedPacket.from_ether_type et bs = Ok (lax_of_packet r).
Proof.
  unfold SlicedPacket.from_ether_type, LaxSlicedPacket.from_ether_type, L.parse_from_ether_type,
    slice_ether_type, L.slice_ether_type. intros H.
  set (ep := mkEtherPayload et LsSlice (mk_slice bs)) in *.
  pose proof (ether_sim 5 (set_link new 0 (LkEtherPayload ep))
                (mkLaxCursor 0 LsSlice (L.with_link L.empty (LkEtherPayload ep))) ep ep) as E.
  rewrite H in E. apply E; [split; reflexivity|reflexivity|reflexivity].
Qed.

Theorem from_ip_extends bs r :
  SlicedPacket.from_ip bs = Ok r -> LaxSlicedPacket.from_ip bs = Ok (lax_of_packet r).
Proof.
  unfold SlicedPacket.from_ip, LaxSlicedPacket.from_ip, slice_ip, L.parse_from_ip.
  pose proof (ipslice_sim (mk_slice bs)) as I.
  destruct (IpSlice.from_slice (mk_slice bs)) as [ip|[l|ce]|b]; cbn [map_len_err bind]; try discriminate.
  rewrite I. cbn [bind option_map]. intros H.
  pose proof (ip_tail_sim new (mkLaxCursor 0 LsSlice L.empty) (mk_slice bs) ip
                (match ip with IpV4 v => NtIpv4 v | IpV6 v => NtIpv6 v end) _
                (conj eq_refl eq_refl) eq_refl) as T.
  rewrite H in T. cbv zeta in T.
  assert (Hn : L.net_of_ip (lax_of_ip ip) =
               lax_of_net (match ip with IpV4 v => NtIpv4 v | IpV6 v => NtIpv6 v end))
    by (destruct ip; reflexivity).
  specialize (T Hn). revert T.
  destruct (L.ptr_diff (lipp_slice (LaxIpSlice.payload (lax_of_ip ip))) (mk_slice bs)) as [d|e|b];
    cbn [bind]; try discriminate.
  rewrite Hn. cbn [lc_offset lc_result lc_src]. rewrite N.add_0_l.
  destruct (is_slice_src (lipp_src (LaxIpSlice.payload (lax_of_ip ip)))) eqn:Es.
  - intros T. exact T.
  - intros T. rewrite <- T. reflexivity.
Qed.

