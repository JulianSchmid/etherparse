(* Parse/FieldsProofs.v -- C03 field values: the accessor models of Parse/Access.v on
   the slices of a strict result return the RFC field at the layer's absolute
   position (Parse/Fields.v: fields_of_packet p = Ok (spec_fields bs (view p))). *)
From Coq Require Import ZArith Lia ZifyN ZifyBool.
From EP Require BitFields.Spec BitFields.Model BitFields.BitLemmas BitFields.Proofs2.
From EP Require Import Base.Bytes Parse.Types Parse.Slices Parse.Cursor Parse.View Parse.WireSpec
  Parse.Repr Parse.StrictProofs Parse.Access Parse.AccessProofs Parse.Fields.

Local Open Scope N_scope.

Local Notation bfield := BitFields.Spec.field.
Local Notation bits_of := BitFields.Spec.bits_of.

Lemma in_buf_repr bs s : in_buf bs s -> repr bs s (s_off s) (s_off s + s_len s).
Proof.
  intros (pos & lim & R). pose proof (repr_off _ _ _ _ R) as O. pose proof (repr_len _ _ _ _ R) as L.
  pose proof R as (_ & P1 & P2). rewrite O, L. replace (pos + (lim - pos)) with lim by lia. exact R.
Qed.

Lemma skipn_cons_nth {A} (l : list A) k d :
  (k < length l)%nat -> skipn k l = nth k l d :: skipn (S k) l.
Proof.
  revert k. induction l as [|x l IH]; intros k H; cbn [length] in H; [lia|].
  destruct k as [|k]; [reflexivity|]. cbn [skipn nth]. apply IH. lia.
Qed.

Lemma take_drop_bytes_at bs n : forall p,
  p + N.of_nat n <= len bs -> take (N.of_nat n) (drop p bs) = bytes_at bs p n.
Proof.
  unfold take, drop, len. rewrite Nnat.Nat2N.id.
  induction n as [|n IH]; intros p H; [reflexivity|].
  rewrite (skipn_cons_nth bs (N.to_nat p) 0) by lia. cbn [firstn bytes_at]. f_equal.
  specialize (IH (p + 1)). replace (N.to_nat (p + 1)) with (S (N.to_nat p)) in IH by lia.
  apply IH. lia.
Qed.

Lemma repr_snd bs s pos lim : repr bs s pos lim -> snd s = bytes_n bs pos (lim - pos).
Proof.
  intros (-> & P1 & P2). cbn [snd]. unfold bytes_n.
  rewrite <- take_drop_bytes_at by lia. now rewrite N2Nat.id.
Qed.

Lemma repr_rd_arr bs s pos lim n : forall i,
  repr bs s pos lim -> i + N.of_nat n <= lim - pos -> rd_arr s i n = Ok (bytes_at bs (pos + i) n).
Proof.
  induction n as [|n IH]; intros i R H; [reflexivity|].
  cbn [rd_arr bytes_at]. rewrite (repr_rdU _ _ _ _ i R) by lia. cbn [bind].
  rewrite (IH (i + 1) R) by lia. cbn [bind]. now rewrite N.add_assoc.
Qed.

Lemma be32_num a b c d : be32 a b c d = be_num [a; b; c; d].
Proof. unfold be32, be_num. cbn [fold_left]. lia. Qed.
Lemma be16_num a b : be16 a b = be_num [a; b].
Proof. unfold be16, be_num. cbn [fold_left]. lia. Qed.

Lemma repr_rd32 bs s pos lim i :
  repr bs s pos lim -> i + 3 < lim - pos -> rd32 s i = Ok (num_at bs (pos + i) 4).
Proof.
  intros R H. unfold rd32.
  rewrite (repr_rdU _ _ _ _ i R) by lia. cbn [bind].
  rewrite (repr_rdU _ _ _ _ (i + 1) R) by lia. cbn [bind].
  rewrite (repr_rdU _ _ _ _ (i + 2) R) by lia. cbn [bind].
  rewrite (repr_rdU _ _ _ _ (i + 3) R) by lia. cbn [bind].
  rewrite be32_num. unfold num_at. cbn [bytes_at]. do 4 f_equal.
  - f_equal. lia.
  - f_equal; [f_equal; lia|]. f_equal. f_equal. lia.
Qed.

(* the sub-slice [k, k+n) of a representing slice holds the buffer's octets *)
Lemma repr_subU_bytes bs s pos lim k n :
  repr bs s pos lim -> k + n <= lim - pos ->
  exists w, subU s k n = Ok w /\ snd w = bytes_n bs (pos + k) n.
Proof.
  intros R H. destruct (repr_subU bs s pos lim k n R H) as (w & E & Rw).
  exists w. split; [exact E|]. rewrite (repr_snd _ _ _ _ Rw). f_equal. lia.
Qed.

Ltac rd_step R :=
  match goal with
  | |- context[rdU ?s ?i] => rewrite (repr_rdU _ s _ _ i R) by lia
  | |- context[rd16 ?s ?i] => rewrite (repr_rd16 _ s _ _ i R) by lia
  | |- context[rd32 ?s ?i] => rewrite (repr_rd32 _ s _ _ i R) by lia
  | |- context[rd_arr ?s ?i ?n] => rewrite (repr_rd_arr _ s _ _ n i R) by (cbn [N.of_nat Pos.of_succ_nat Pos.succ]; lia)
  end; cbn [bind].
Ltac reads R := repeat rd_step R.

(* The accessors read octet by octet, at offsets i and i + 1 written as one numeral; the
   format puts a word, or a run of octets, at the address of its first octet.  Unrolled by
   these two equations the format's addresses are p + (i + 1) with i a numeral, and agree
   with the accessors' by computation. *)
Lemma W_off bs p i : W bs (p + i) = be16 (B bs (p + i)) (B bs (p + (i + 1))).
Proof. unfold W. now rewrite N.add_assoc. Qed.

Lemma bytes_at_off bs p i n :
  bytes_at bs (p + i) (S n) = B bs (p + i) :: bytes_at bs (p + (i + 1)) n.
Proof. cbn [bytes_at]. now rewrite N.add_assoc. Qed.

Lemma flag_of_b2n t f : BitFields.Spec.b2n t = f -> (f =? 1) = t.
Proof. intros <-. now destruct t. Qed.

Lemma bitset_nonzero b m : bitset b m = BitFields.Model.nonzero (N.land b m).
Proof. reflexivity. Qed.

(* complete octet sweeps for the shifts and masks C15 does not name *)
Definition byte_chk (b : N) : bool :=
  (N.shiftr b 4 =? bfield (bits_of [b]) 0 4) &&
  (N.land b 15 =? bfield (bits_of [b]) 4 4) &&
  (N.shiftr (N.land b 240) 4 =? bfield (bits_of [b]) 0 4) &&
  Bool.eqb (bitset b 128) (bfield (bits_of [b]) 0 1 =? 1) &&
  Bool.eqb (bitset b 64) (bfield (bits_of [b]) 1 1 =? 1) &&
  Bool.eqb (bitset b 32) (bfield (bits_of [b]) 2 1 =? 1) &&
  Bool.eqb (bitset b 16) (bfield (bits_of [b]) 3 1 =? 1) &&
  Bool.eqb (bitset b 8) (bfield (bits_of [b]) 4 1 =? 1) &&
  Bool.eqb (bitset b 4) (bfield (bits_of [b]) 5 1 =? 1) &&
  Bool.eqb (bitset b 2) (bfield (bits_of [b]) 6 1 =? 1) &&
  Bool.eqb (bitset b 1) (bfield (bits_of [b]) 7 1 =? 1) &&
  (N.land b 3 =? bfield (bits_of [b]) 6 2) &&
  (N.land b 63 =? bfield (bits_of [b]) 2 6).

Lemma byte_chk_all : forallb byte_chk (BitFields.BitLemmas.range 256) = true.
Proof. vm_compute. reflexivity. Qed.

Lemma byte_facts b : b < 256 ->
  N.shiftr b 4 = bfield (bits_of [b]) 0 4 /\
  N.land b 15 = bfield (bits_of [b]) 4 4 /\
  N.shiftr (N.land b 240) 4 = bfield (bits_of [b]) 0 4 /\
  bitset b 128 = (bfield (bits_of [b]) 0 1 =? 1) /\
  bitset b 64 = (bfield (bits_of [b]) 1 1 =? 1) /\
  bitset b 32 = (bfield (bits_of [b]) 2 1 =? 1) /\
  bitset b 16 = (bfield (bits_of [b]) 3 1 =? 1) /\
  bitset b 8 = (bfield (bits_of [b]) 4 1 =? 1) /\
  bitset b 4 = (bfield (bits_of [b]) 5 1 =? 1) /\
  bitset b 2 = (bfield (bits_of [b]) 6 1 =? 1) /\
  bitset b 1 = (bfield (bits_of [b]) 7 1 =? 1) /\
  N.land b 3 = bfield (bits_of [b]) 6 2 /\
  N.land b 63 = bfield (bits_of [b]) 2 6.
Proof.
  intros H. pose proof (BitFields.BitLemmas.sweep 256 byte_chk byte_chk_all b H) as C.
  unfold byte_chk in C.
  repeat match type of C with (_ && _) = true => apply andb_prop in C; destruct C as [C ?] end.
  repeat match goal with
         | X : (_ =? _) = true |- _ => apply N.eqb_eq in X
         | X : Bool.eqb _ _ = true |- _ => apply Bool.eqb_prop in X
         end.
  repeat split; assumption.
Qed.

(* RFC 8200 flow label: bits 12..31 of the first four octets *)
Lemma flow_bits b0 b1 b2 b3 : b2 < 256 -> b3 < 256 ->
  be32 0 (N.land b1 15) b2 b3 = bfield (bits_of [b0; b1; b2; b3]) 12 20.
Proof.
  intros H2 H3. unfold BitFields.Spec.bits_of. cbn [flat_map]. rewrite app_nil_r.
  change 8%nat with (4 + 4)%nat at 2. rewrite (BitFields.BitLemmas.nbits_split 4 4 b1).
  set (x := BitFields.Spec.nbits 8 b0 ++ BitFields.Spec.nbits 4 (b1 / 2 ^ N.of_nat 4)).
  set (m := BitFields.Spec.nbits 4 b1 ++ BitFields.Spec.nbits 8 b2 ++ BitFields.Spec.nbits 8 b3).
  pose proof (BitFields.BitLemmas.field_mid x m []) as F.
  assert (Lx : length x = 12%nat) by (unfold x; rewrite app_length, !BitFields.BitLemmas.nbits_length; reflexivity).
  assert (Lm : length m = 20%nat) by (unfold m; rewrite !app_length, !BitFields.BitLemmas.nbits_length; reflexivity).
  rewrite Lx, Lm, app_nil_r in F.
  replace (BitFields.Spec.nbits 8 b0 ++ (BitFields.Spec.nbits 4 (b1 / 2 ^ N.of_nat 4) ++ BitFields.Spec.nbits 4 b1) ++
           BitFields.Spec.nbits 8 b2 ++ BitFields.Spec.nbits 8 b3) with (x ++ m)
    by (unfold x, m; now rewrite <- !app_assoc).
  rewrite F. unfold m. rewrite !BitFields.BitLemmas.bits_val_app, !BitFields.BitLemmas.bits_val_nbits.
  rewrite !app_length, !BitFields.BitLemmas.nbits_length.
  change (N.land b1 15) with (N.land b1 (N.ones 4)). rewrite N.land_ones.
  change (2 ^ N.of_nat 4) with 16. change (2 ^ N.of_nat 8) with 256. change (2 ^ N.of_nat (8 + 8)) with 65536.
  rewrite (N.mod_small b2 256), (N.mod_small b3 256) by assumption.
  unfold be32. lia.
Qed.

Section Link.
  Variable bs : bytes.
  Hypothesis Hok : bytes_ok bs.

  Lemma eth_fields_ok s : in_buf bs s -> 14 <= s_len s -> eth_fields s = Ok (eth_spec bs (s_off s)).
  Proof.
    intros I L. pose proof (in_buf_repr _ _ I) as R.
    unfold eth_fields, Ethernet2A.destination, Ethernet2A.source, Ethernet2A.ether_type. cbn [e2_slice].
    reads R. unfold eth_spec, num_at. now rewrite N.add_0_r.
  Qed.

  Lemma vlan_fields_ok s : in_buf bs s -> 4 <= s_len s -> vlan_fields s = Ok (vlan_spec bs (s_off s)).
  Proof.
    intros I L. pose proof (in_buf_repr _ _ I) as R.
    unfold vlan_fields, SingleVlanA.priority_code_point, SingleVlanA.drop_eligible_indicator,
      SingleVlanA.vlan_identifier, SingleVlanA.ether_type.
    reads R. rewrite !N.add_0_r. unfold vlan_spec, flag, bits. cbn [bytes_at].
    set (a := B bs (s_off s)). set (b := B bs (s_off s + 1)).
    destruct (BitFields.Proofs2.raw_fields_tci a b (B_lt _ _ Hok) (B_lt _ _ Hok)) as (E1 & E2 & E3).
    rewrite <- E1, <- E3, (flag_of_b2n _ _ E2). reflexivity.
  Qed.

  Lemma udp_fields_ok s : in_buf bs s -> 8 <= s_len s -> udp_fields s = Ok (udp_spec bs (s_off s)).
  Proof.
    intros I L. pose proof (in_buf_repr _ _ I) as R.
    unfold udp_fields, UdpA.source_port, UdpA.destination_port, UdpA.length, UdpA.checksum.
    reads R. unfold udp_spec. now rewrite N.add_0_r.
  Qed.

  Lemma ipv4_fields_ok h :
    in_buf bs h -> 20 <= s_len h ->
    ipv4_fields h = Ok (ipv4_spec bs (s_off h) (s_len h)).
  Proof.
    intros I L. pose proof (in_buf_repr _ _ I) as R.
    unfold ipv4_fields, Ipv4HeaderA.version, Ipv4HeaderA.ihl, Ipv4HeaderA.dcp, Ipv4HeaderA.ecn,
      Ipv4HeaderA.total_len, Ipv4HeaderA.identification, Ipv4HeaderA.dont_fragment,
      Ipv4HeaderA.more_fragments, Ipv4HeaderA.fragments_offset, Ipv4HeaderA.ttl, Ipv4HeaderA.protocol,
      Ipv4HeaderA.header_checksum, Ipv4HeaderA.source, Ipv4HeaderA.destination, Ipv4HeaderA.options.
    reads R. rewrite subN_ok by lia. cbn [bind].
    destruct (repr_subU_bytes bs h _ _ 20 (s_len h - 20) R) as (w & Ew & Sw); [lia|].
    rewrite Ew. cbn [bind]. rewrite Sw, !N.add_0_r.
    unfold ipv4_spec, flag, bits, num_at. rewrite !bytes_at_off. cbn [bytes_at].
    set (p := s_off h).
    destruct (byte_facts (B bs p) (B_lt _ _ Hok)) as (E1 & E2 & _).
    destruct (BitFields.Proofs2.raw_fields_ipv4_1 (B bs (p + 1)) (B_lt _ _ Hok)) as (E3 & E4).
    destruct (BitFields.Proofs2.raw_fields_ipv4_67 (B bs (p + 6)) (B bs (p + (6 + 1)))
                (B_lt _ _ Hok) (B_lt _ _ Hok)) as (E5 & E6 & E7).
    rewrite <- E1, <- E2, <- E3, <- E4, <- E7.
    rewrite !bitset_nonzero, <- (flag_of_b2n _ _ E5), <- (flag_of_b2n _ _ E6). reflexivity.
  Qed.

  Lemma tcp_fields_ok hl s :
    in_buf bs s -> 20 <= hl -> hl <= s_len s ->
    tcp_fields (hl, s) = Ok (tcp_spec bs (s_off s) hl).
  Proof.
    intros I L1 L2. pose proof (in_buf_repr _ _ I) as R.
    unfold tcp_fields, TcpFieldsA.source_port, TcpFieldsA.destination_port, TcpFieldsA.sequence_number,
      TcpFieldsA.acknowledgment_number, TcpFieldsA.data_offset, TcpFieldsA.ns, TcpFieldsA.cwr,
      TcpFieldsA.ece, TcpFieldsA.urg, TcpFieldsA.ack, TcpFieldsA.psh, TcpFieldsA.rst, TcpFieldsA.syn,
      TcpFieldsA.fin, TcpFieldsA.window_size, TcpFieldsA.checksum, TcpFieldsA.urgent_pointer,
      TcpSliceA.options.
    cbn [fst snd]. reads R.
    rewrite idx_range_subU by lia.
    destruct (repr_subU_bytes bs s _ _ 20 (hl - 20) R) as (w & Ew & Sw); [lia|].
    rewrite Ew. cbn [bind]. rewrite Sw, !N.add_0_r.
    unfold tcp_spec, flag, bits. cbn [bytes_at]. rewrite !W_off.
    set (p := s_off s).
    destruct (byte_facts (B bs (p + 12)) (B_lt _ _ Hok)) as (_ & _ & E3 & _ & _ & _ & _ & _ & _ & _ & E11 & _).
    destruct (byte_facts (B bs (p + 13)) (B_lt _ _ Hok))
      as (_ & _ & _ & F0 & F1 & F2 & F3 & F4 & F5 & F6 & F7 & _).
    rewrite E3, E11, F0, F1, F2, F3, F4, F5, F6, F7. reflexivity.
  Qed.

  Lemma icmp4_fields_ok s : in_buf bs s -> 8 <= s_len s -> icmp4_fields s = Ok (icmp_spec bs (s_off s)).
  Proof.
    intros I L. pose proof (in_buf_repr _ _ I) as R.
    unfold icmp4_fields, Icmpv4A.type_u8, Icmpv4A.code_u8, Icmpv4A.checksum, Icmpv4A.bytes5to8.
    reads R. rewrite !N.add_0_r. unfold icmp_spec. rewrite !bytes_at_off. reflexivity.
  Qed.

  (* Icmpv6A's four accessors have the bodies of Icmpv4A's *)
  Lemma icmp6_fields_ok s : in_buf bs s -> 8 <= s_len s -> icmp6_fields s = Ok (icmp_spec bs (s_off s)).
  Proof. exact (icmp4_fields_ok s). Qed.

  Lemma ipv6_fields_ok h : in_buf bs h -> s_len h = 40 -> ipv6_fields h = Ok (ipv6_spec bs (s_off h)).
  Proof.
    intros I L. pose proof (in_buf_repr _ _ I) as R.
    unfold ipv6_fields, Ipv6HeaderA.version, Ipv6HeaderA.traffic_class, Ipv6HeaderA.flow_label,
      Ipv6HeaderA.payload_length, Ipv6HeaderA.next_header, Ipv6HeaderA.hop_limit, Ipv6HeaderA.source,
      Ipv6HeaderA.destination.
    reads R. rewrite !N.add_0_r.
    unfold ipv6_spec, bits. set (p := s_off h).
    change (bytes_at bs p 4) with (B bs p :: bytes_at bs (p + 1) 3).
    rewrite (bytes_at_off bs p 1), (bytes_at_off bs p (1 + 1)). cbn [bytes_at].
    destruct (byte_facts (B bs p) (B_lt _ _ Hok)) as (E1 & _).
    destruct (BitFields.Proofs2.raw_fields_ipv6_01 (B bs p) (B bs (p + 1)) (B_lt _ _ Hok) (B_lt _ _ Hok))
      as (E2 & _).
    unfold BitFields.Model.shl8 in E2.
    rewrite E1, E2.
    rewrite (flow_bits (B bs p) (B bs (p + 1)) (B bs (p + 2)) (B bs (p + 3)) (B_lt _ _ Hok) (B_lt _ _ Hok)).
    reflexivity.
  Qed.

  Lemma frag_fields_ok h : in_buf bs h -> s_len h = 8 -> frag_fields h = Ok (frag_spec bs (s_off h)).
  Proof.
    intros I L. pose proof (in_buf_repr _ _ I) as R.
    unfold frag_fields, Ipv6FragmentHeaderA.next_header, Ipv6FragmentHeaderA.fragment_offset,
      Ipv6FragmentHeaderA.more_fragments, Ipv6FragmentHeaderA.identification.
    reads R. rewrite !N.add_0_r. unfold frag_spec, flag, bits. rewrite !bytes_at_off. cbn [bytes_at].
    set (p := s_off h).
    destruct (BitFields.Proofs2.raw_fields_frag (B bs (p + 2)) (B bs (p + (2 + 1))) (B_lt _ _ Hok) (B_lt _ _ Hok))
      as (E1 & E2).
    rewrite (flag_of_b2n _ _ E2), <- E1. reflexivity.
  Qed.

  (* authentication header: wf_ah = what from_slice established *)
  Lemma ah_fields_ok h : in_buf bs h -> wf_ah h -> ah_fields h = Ok (ah_spec bs (s_off h) (s_len h)).
  Proof.
    intros I (q & Eq & Q1 & L). pose proof (in_buf_repr _ _ I) as R.
    assert (Eq' : q = B bs (s_off h + 1)).
    { rewrite (repr_rdU _ _ _ _ 1 R) in Eq by lia. now injection Eq as <-. }
    pose proof (B_lt bs (s_off h + 1) Hok) as Hq. rewrite <- Eq' in Hq.
    unfold ah_fields, IpAuthHeaderA.to_header, IpAuthHeaderA.next_header, IpAuthHeaderA.spi,
      IpAuthHeaderA.sequence_number, IpAuthHeaderA.raw_icv, idx_from.
    reads R. rewrite idx_range_subU by lia.
    destruct (repr_subU bs h _ _ 12 (s_len h - 12) R) as (w & Ew & Rw); [lia|].
    rewrite Ew. cbn [bind].
    pose proof (repr_len _ _ _ _ Rw) as Lw. pose proof (repr_snd _ _ _ _ Rw) as Sw.
    unfold IpAuthHeaderA.header_new, IpAuthHeaderA.MAX_ICV_LEN.
    assert (Lw' : s_len w = (q - 1) * 4) by lia. rewrite Lw'.
    destruct (1016 <? (q - 1) * 4) eqn:C1; [lia|].
    rewrite N.mod_mul by discriminate. rewrite N.eqb_refl. cbn [negb].
    rewrite N.div_mul by discriminate. rewrite (N.mod_small (q - 1) 256) by lia.
    cbn [bind]. rewrite Sw. rewrite !N.add_0_r. unfold ah_spec.
    replace (q - 1 + 1) with q by lia. rewrite Eq'.
    replace (s_off h + 12 + (s_len h - 12) - (s_off h + 12)) with (s_len h - 12) by lia.
    reflexivity.
  Qed.

  Lemma raw_ext_fields_ok h :
    in_buf bs h -> wf_raw h -> raw_ext_fields h = Ok (raw_ext_spec bs (s_off h) (s_len h)).
  Proof.
    intros I (q & Eq & L). pose proof (in_buf_repr _ _ I) as R.
    assert (Eq' : q = B bs (s_off h + 1)).
    { rewrite (repr_rdU _ _ _ _ 1 R) in Eq by lia. now injection Eq as <-. }
    pose proof (B_lt bs (s_off h + 1) Hok) as Hq. rewrite <- Eq' in Hq.
    unfold raw_ext_fields, Ipv6RawExtHeaderA.to_header, Ipv6RawExtHeaderA.next_header,
      Ipv6RawExtHeaderA.payload.
    reads R. rewrite subN_ok by lia. cbn [bind].
    destruct (repr_subU bs h _ _ 2 (s_len h - 2) R) as (w & Ew & Rw); [lia|].
    rewrite Ew. cbn [bind].
    pose proof (repr_len _ _ _ _ Rw) as Lw. pose proof (repr_snd _ _ _ _ Rw) as Sw.
    unfold Ipv6RawExtHeaderA.new_raw, Ipv6RawExtHeaderA.MIN_PAYLOAD_LEN, Ipv6RawExtHeaderA.MAX_PAYLOAD_LEN.
    assert (Lw' : s_len w = q * 8 + 6) by lia. rewrite Lw'.
    destruct (q * 8 + 6 <? 6) eqn:C1; [lia|]. destruct (2046 <? q * 8 + 6) eqn:C2; [lia|].
    replace (q * 8 + 6 + 2) with ((q + 1) * 8) by lia.
    rewrite N.mod_mul by discriminate. rewrite N.eqb_refl. cbn [negb].
    replace (q * 8 + 6 - 6) with (q * 8) by lia.
    rewrite N.div_mul by discriminate. rewrite (N.mod_small q 256) by lia.
    cbn [bind]. rewrite Sw, !N.add_0_r. unfold raw_ext_spec. rewrite Eq'.
    replace (s_off h + 2 + (s_len h - 2) - (s_off h + 2)) with (s_len h - 2) by lia.
    reflexivity.
  Qed.

  Lemma macsec_fields_ok h :
    in_buf bs h -> wf_macsech h -> macsec_fields h = Ok (macsec_spec bs (s_off h)).
  Proof.
    intros I (t & Et & L). pose proof (in_buf_repr _ _ I) as R.
    assert (L6 : 6 <= s_len h) by lia.
    rewrite (repr_rdU _ _ _ _ 0 R), N.add_0_r in Et by lia. injection Et as <-.
    set (p := s_off h) in *.
    assert (S : MacsecHeaderA.sci h =
                Ok (if bitset (B bs p) 32 then Some (bytes_at bs (p + 6) 8) else None)).
    { unfold MacsecHeaderA.sci, MacsecHeaderA.sci_present, MacsecHeaderA.tci_an_raw.
      rewrite (repr_rdU _ _ _ _ 0 R), N.add_0_r by lia. cbn [bind]. fold p.
      destruct (bitset (B bs p) 32); [|reflexivity].
      assert (L14 : 14 <= s_len h) by (destruct (N.land (B bs p) 12 =? 0); lia). clear L.
      reads R. fold p. rewrite !bytes_at_off. reflexivity. }
    clear L. unfold macsec_fields. rewrite S.
    unfold MacsecHeaderA.endstation_id, MacsecHeaderA.sci_present, MacsecHeaderA.tci_scb,
      MacsecHeaderA.encrypted, MacsecHeaderA.userdata_changed, MacsecHeaderA.an, MacsecHeaderA.short_len,
      MacsecHeaderA.packet_nr, MacsecHeaderA.tci_an_raw.
    reads R. rewrite !N.add_0_r, be32_num. fold p.
    unfold macsec_spec, flag, bits, num_at. rewrite !bytes_at_off. cbn [bytes_at].
    destruct (byte_facts (B bs p) (B_lt _ _ Hok)) as (_ & _ & _ & F0 & F1 & F2 & F3 & F4 & F5 & _ & _ & F67 & _).
    destruct (byte_facts (B bs (p + 1)) (B_lt _ _ Hok)) as (_ & _ & _ & _ & _ & _ & _ & _ & _ & _ & _ & _ & G).
    rewrite <- F0, <- F1, <- F2, <- F3, <- F4, <- F5, <- F67, <- G.
    destruct (bitset (B bs p) 32); reflexivity.
  Qed.

  Lemma arp_fields_ok a : in_buf bs a -> wf_arp a -> arp_fields a = Ok (arp_spec bs (s_off a)).
  Proof.
    intros I (hw & pr & Eh & Ep & L). pose proof (in_buf_repr _ _ I) as R.
    assert (Eh' : hw = B bs (s_off a + 4)).
    { rewrite (repr_rdU _ _ _ _ 4 R) in Eh by lia. now injection Eh as <-. }
    assert (Ep' : pr = B bs (s_off a + 5)).
    { rewrite (repr_rdU _ _ _ _ 5 R) in Ep by lia. now injection Ep as <-. }
    set (p := s_off a) in *.
    unfold arp_fields, ArpPacketA.hw_addr_type, ArpPacketA.proto_addr_type, ArpPacketA.operation,
      ArpPacketA.sender_hw_addr, ArpPacketA.sender_protocol_addr, ArpPacketA.target_hw_addr,
      ArpPacketA.target_protocol_addr, ArpPacketA.hw_addr_size, ArpPacketA.proto_addr_size.
    rewrite !(repr_rdU _ _ _ _ 0 R), !(repr_rdU _ _ _ _ 1 R), !(repr_rdU _ _ _ _ 2 R),
      !(repr_rdU _ _ _ _ 3 R), !(repr_rdU _ _ _ _ 4 R), !(repr_rdU _ _ _ _ 5 R),
      !(repr_rdU _ _ _ _ 6 R), !(repr_rdU _ _ _ _ 7 R) by lia. cbn [bind]. fold p.
    rewrite <- Eh', <- Ep'.
    destruct (repr_subU_bytes bs a _ _ 8 hw R) as (w1 & E1 & S1); [lia|].
    destruct (repr_subU_bytes bs a _ _ (8 + hw) pr R) as (w2 & E2 & S2); [lia|].
    destruct (repr_subU_bytes bs a _ _ (8 + hw + pr) hw R) as (w3 & E3 & S3); [lia|].
    destruct (repr_subU_bytes bs a _ _ (8 + hw * 2 + pr) pr R) as (w4 & E4 & S4); [lia|].
    rewrite E1, E2, E3, E4. cbn [bind]. fold p in S1, S2, S3, S4. rewrite S1, S2, S3, S4.
    unfold arp_spec. rewrite !W_off. unfold W. rewrite <- Eh', <- Ep', !N.add_0_r.
    replace (p + (8 + hw)) with (p + 8 + hw) by lia.
    replace (p + (8 + hw + pr)) with (p + 8 + hw + pr) by lia.
    replace (p + (8 + hw * 2 + pr)) with (p + 8 + hw + pr + hw) by lia.
    reflexivity.
  Qed.

  Lemma sll_proto_raw_ok hw pr v : LinuxSll.protocol_type_try_from hw pr = Ok v -> sll_proto_raw v = pr.
  Proof.
    unfold LinuxSll.protocol_type_try_from.
    repeat match goal with |- context[if ?c then _ else _] => destruct c end;
      intros E; try discriminate; injection E as <-; reflexivity.
  Qed.

  Lemma sll_fields_ok h : in_buf bs h -> wf_sllh h -> sll_fields h = Ok (sll_spec bs (s_off h)).
  Proof.
    intros I (L & pt & hw & pr & v & E0 & P7 & E2 & E14 & Ev). pose proof (in_buf_repr _ _ I) as R.
    unfold sll_fields, LinuxSllHeaderA.protocol_type, LinuxSllHeaderA.packet_type,
      LinuxSllHeaderA.arp_hardware_type, LinuxSllHeaderA.sender_address_valid_length,
      LinuxSllHeaderA.sender_address_full.
    rewrite E0, E2, E14. cbn [bind]. rewrite Ev.
    unfold LinuxSll.packet_type_try_from. destruct (pt <=? 7) eqn:C; [|lia].
    rewrite (repr_rd16 _ _ _ _ 0 R) in E0 by lia. rewrite (repr_rd16 _ _ _ _ 2 R) in E2 by lia.
    rewrite (repr_rd16 _ _ _ _ 14 R) in E14 by lia.
    injection E0 as <-. injection E2 as <-. injection E14 as <-.
    reads R. rewrite (sll_proto_raw_ok _ _ _ Ev). unfold sll_spec. rewrite !N.add_0_r. reflexivity.
  Qed.

  Import Ipv6ExtIterA.

  Lemma arm_step I pos lim nh0 mk nhf wrap o :
    repr bs I pos lim ->
    arm (mkExtIter nh0 I) mk nhf wrap = Ok o ->
    (forall sl, mk I = Ok sl -> exists l', subU I 0 l' = Ok sl) ->
    (forall sl, nhf sl = rdU sl 0) ->
    exists sl rest',
      o = Some (wrap sl, mkExtIter (B bs pos) rest') /\
      repr bs sl pos (pos + s_len sl) /\ repr bs rest' (pos + s_len sl) lim.
  Proof.
    intros R H Hmk Hnh. unfold arm in H. cbn [xi_rest] in H.
    binv H sl Esl. binv H n En. binv H rest' Er. binv H nx Enx. injection H as <-.
    destruct (Hmk sl Esl) as (l' & El').
    pose proof (subU_repr _ _ _ _ _ _ _ R El') as Rsl. rewrite N.add_0_r in Rsl.
    pose proof (subU_inv _ _ _ _ El') as (_ & Lsl & _). rewrite <- Lsl in Rsl.
    apply subN_inv in En. destruct En as (En1 & ->).
    pose proof (subU_repr _ _ _ _ _ _ _ R Er) as Rr.
    rewrite (repr_len _ _ _ _ R) in Rr, En1. destruct R as (_ & P1 & P2).
    replace (pos + s_len sl + (lim - pos - s_len sl)) with lim in Rr by lia.
    rewrite Hnh in Enx. pose proof (rdU_inv _ _ _ Enx) as L0.
    rewrite (repr_rdU _ _ _ _ 0 Rsl) in Enx by lia. rewrite N.add_0_r in Enx. injection Enx as <-.
    exists sl, rest'. auto.
  Qed.

  Lemma raw_mk_prefix I sl :
    Ipv6RawExtHeaderA.from_slice_unchecked I = Ok sl -> exists l', subU I 0 l' = Ok sl.
  Proof. unfold Ipv6RawExtHeaderA.from_slice_unchecked. intros H. binv H b Eb. eauto. Qed.
  Lemma frag_mk_prefix I sl :
    Ipv6FragmentHeaderA.from_slice_unchecked I = Ok sl -> exists l', subU I 0 l' = Ok sl.
  Proof. unfold Ipv6FragmentHeaderA.from_slice_unchecked. eauto. Qed.
  Lemma auth_mk_prefix I sl :
    auth_from_slice_unchecked I = Ok sl -> exists l', subU I 0 l' = Ok sl.
  Proof. unfold auth_from_slice_unchecked. intros H. binv H b Eb. eauto. Qed.

  Lemma raw_len_spec sl pos : repr bs sl pos (pos + s_len sl) -> wf_raw sl -> s_len sl = (B bs (pos + 1) + 1) * 8.
  Proof.
    intros R (q & Eq & L). rewrite (repr_rdU _ _ _ _ 1 R) in Eq by lia. injection Eq as <-. exact L.
  Qed.
  Lemma ah_len_spec sl pos : repr bs sl pos (pos + s_len sl) -> wf_ah sl -> s_len sl = (B bs (pos + 1) + 2) * 4.
  Proof.
    intros R (q & Eq & _ & L). rewrite (repr_rdU _ _ _ _ 1 R) in Eq by lia. injection Eq as <-. exact L.
  Qed.

  Lemma repr_in_buf s pos lim : repr bs s pos lim -> in_buf bs s.
  Proof. intros R. now exists pos, lim. Qed.

  Lemma chain_fields_ok fuel : forall nh I pos lim l,
    repr bs I pos lim -> collect fuel (mkExtIter nh I) = Ok l -> Forall item_wf l ->
    mapM item_fields l = Ok (chain_spec bs fuel nh pos lim).
  Proof.
    induction fuel as [|f IH]; intros nh I pos lim l R H Wl; [discriminate|].
    cbn [collect] in H. cbn [chain_spec]. binv H o Eo.
    unfold next in Eo. cbn [xi_rest xi_next_header] in Eo.
    rewrite (repr_len _ _ _ _ R) in Eo. pose proof R as (_ & P1 & P2).
    destruct (lim - pos =? 0) eqn:E0.
    { injection Eo as <-. injection H as <-. destruct (lim <=? pos) eqn:C; [reflexivity|lia]. }
    destruct (lim <=? pos) eqn:C; [lia|].
    change IPN_HOP_BY_HOP with 0 in Eo. change IPN_ROUTE with 43 in Eo.
    change IPN_DEST_OPTIONS with 60 in Eo. change IPN_FRAG with 44 in Eo. change IPN_AUTH with 51 in Eo.
    assert (RAW : forall wrap tag,
      (forall s, item_wf (wrap s) = wf_raw s) -> (forall s, ext_item_slice (wrap s) = s) ->
      (forall s, item_fields (wrap s) = let* g := raw_ext_fields s in Ok (tag, g)) ->
      arm (mkExtIter nh I) Ipv6RawExtHeaderA.from_slice_unchecked Ipv6RawExtHeaderA.next_header wrap = Ok o ->
      mapM item_fields l =
      Ok ((tag, raw_ext_spec bs pos ((B bs (pos + 1) + 1) * 8)) ::
          chain_spec bs f (B bs pos) (pos + (B bs (pos + 1) + 1) * 8) lim)).
    { intros wrap tag Hw Hs Hf Ea.
      destruct (arm_step _ _ _ _ _ _ _ _ R Ea (raw_mk_prefix I) (fun _ => eq_refl)) as (sl & rest' & -> & Rsl & Rr).
      binv H r Er. injection H as <-. inversion Wl as [|? ? Wx Wr]; subst.
      rewrite Hw in Wx. rewrite <- (raw_len_spec _ _ Rsl Wx).
      cbn [mapM]. rewrite Hf.
      rewrite (raw_ext_fields_ok sl (repr_in_buf _ _ _ Rsl) Wx). cbn [bind].
      rewrite (repr_off _ _ _ _ Rsl).
      rewrite (IH _ _ _ _ _ Rr Er Wr). reflexivity. }
    destruct (nh =? 0).
    { apply (RAW XHopByHop LHopByHop); auto. }
    destruct (nh =? 43).
    { apply (RAW XRouting LRouting); auto. }
    destruct (nh =? 60).
    { apply (RAW XDestinationOptions LDestOpts); auto. }
    clear RAW.
    destruct (nh =? 44).
    { destruct (arm_step _ _ _ _ _ _ _ _ R Eo (frag_mk_prefix I) (fun _ => eq_refl)) as (sl & rest' & -> & Rsl & Rr).
      binv H r Er. injection H as <-. inversion Wl as [|? ? Wx Wr]; subst.
      cbn [item_wf] in Wx. unfold wf_frag in Wx. rewrite Wx in *.
      cbn [mapM item_fields].
      rewrite (frag_fields_ok sl (repr_in_buf _ _ _ Rsl) Wx). cbn [bind].
      rewrite (repr_off _ _ _ _ Rsl).
      rewrite (IH _ _ _ _ _ Rr Er Wr). reflexivity. }
    destruct (nh =? 51).
    { destruct (arm_step _ _ _ _ _ _ _ _ R Eo (auth_mk_prefix I) (fun _ => eq_refl)) as (sl & rest' & -> & Rsl & Rr).
      binv H r Er. injection H as <-. inversion Wl as [|? ? Wx Wr]; subst.
      cbn [item_wf] in Wx. rewrite <- (ah_len_spec _ _ Rsl Wx).
      cbn [mapM item_fields].
      rewrite (ah_fields_ok sl (repr_in_buf _ _ _ Rsl) Wx). cbn [bind].
      rewrite (repr_off _ _ _ _ Rsl).
      rewrite (IH _ _ _ _ _ Rr Er Wr). reflexivity. }
    injection Eo as <-. injection H as <-. reflexivity.
  Qed.

  Lemma exts_first nh s x nx rest :
    Ipv6ExtensionsSlice.from_slice nh s = Ok (x, nx, rest) ->
    x6_first x = Some nh \/ (x6_first x = None /\ s_len (x6_slice x) = 0).
  Proof.
    unfold Ipv6ExtensionsSlice.from_slice. intros H.
    binv H st Est. destruct st as (rest0, nh0).
    binv H w Ew. destruct w as ((restf, nxf), frf).
    binv H used Eu. apply subN_inv in Eu. destruct Eu as (Lr & ->).
    binv H sl Esl.
    destruct (s_len s - s_len restf <=? s_len s) eqn:Eus; [|discriminate]. injection Esl as <-.
    injection H as <- <- <-. cbn [x6_slice x6_first].
    destruct (s_len restf =? s_len s) eqn:E; cbn [negb]; [right|left; reflexivity].
    split; [reflexivity|]. unfold s_len at 1. cbn [snd]. rewrite len_take.
    assert (s_len restf = s_len s) by lia. lia.
  Qed.

  Lemma ipv6_finish_first s header v :
    Ipv6Slice.finish s header = Ok v ->
    v6_header v = header /\
    exists nh, rdU header 6 = Ok nh /\
      (x6_first (v6_exts v) = Some nh \/
       (x6_first (v6_exts v) = None /\ s_len (x6_slice (v6_exts v)) = 0)).
  Proof.
    unfold Ipv6Slice.finish. intros H. binv H pl Epl. binv H hp Ehp. destruct hp as (hp, src).
    binv H nh Enh. binv H x Ex. destruct x as ((exts, pn), payload). injection H as <-. cbn.
    assert (Ex' : Ipv6ExtensionsSlice.from_slice nh hp = Ok (exts, pn, payload)).
    { destruct (Ipv6ExtensionsSlice.from_slice nh hp) as [a|[e|c]|b]; try discriminate; exact Ex. }
    split; [reflexivity|]. exists nh. split; [exact Enh|]. exact (exts_first _ _ _ _ _ Ex').
  Qed.

  Lemma ipv6_first src v :
    Ipv6Slice.from_slice src = Ok v \/ IpSlice.from_slice src = Ok (IpV6 v) ->
    exists nh, rdU (v6_header v) 6 = Ok nh /\
      (x6_first (v6_exts v) = Some nh \/
       (x6_first (v6_exts v) = None /\ s_len (x6_slice (v6_exts v)) = 0)).
  Proof.
    intros [H|H].
    - unfold Ipv6Slice.from_slice in H. binv H header Eh.
      destruct (ipv6_finish_first _ _ _ H) as (-> & X). exact X.
    - unfold IpSlice.from_slice in H. destruct (s_len src =? 0); unfold lerr in H; [discriminate|].
      binv H fb Efb. destruct (N.shiftr fb 4 =? 4).
      + destruct (N.land fb 15 <? 5); [discriminate|].
        destruct (s_len src <? N.land fb 15 * 4); [discriminate|].
        binv H header Eh. binv H total Et.
        destruct (total <? N.land fb 15 * 4); [discriminate|].
        destruct (s_len src <? total); [discriminate|].
        binv H n En. binv H hp Ehp. binv H v' Ev. discriminate.
      + destruct (N.shiftr fb 4 =? 6); [|discriminate].
        destruct (s_len src <? 40); [discriminate|].
        binv H header Eh. binv H v' Ev. injection H as ->.
        destruct (ipv6_finish_first _ _ _ Ev) as (-> & X). exact X.
  Qed.

  Lemma chain_spec_empty fuel nh pos : chain_spec bs (S fuel) nh pos pos = [].
  Proof. cbn [chain_spec]. destruct (pos <=? pos) eqn:C; [reflexivity|lia]. Qed.

  Lemma link_fields_ok l : link_prov bs l -> link_fields l = Ok (spec_link bs (view_link l)).
  Proof.
    destruct l as [s|h w|e]; cbn [link_prov link_fields view_link spec_link].
    - intros (src & I & H). apply eth2_plain_wf in H. destruct H as (-> & (_ & L)). cbn [e2_fcs_len e2_slice] in L.
      rewrite (eth_fields_ok src I) by lia. reflexivity.
    - intros (src & I & H). apply sll_wf in H. destruct H as ((Wh & _) & _ & S). cbn [fst snd] in *.
      rewrite (sll_fields_ok h (sub_of_in_buf _ _ _ I S) Wh). reflexivity.
    - reflexivity.
  Qed.

  Lemma ext_fields_ok x : ext_prov bs x -> ext_fields x = Ok (spec_ext bs (view_ext x)).
  Proof.
    destruct x as [s|m]; cbn [ext_prov ext_fields view_ext spec_ext].
    - intros (src & I & H). apply vlan_wf in H. destruct H as (-> & L). unfold wf_vlan in L.
      rewrite (vlan_fields_ok src I L). reflexivity.
    - intros (src & I & H). apply macsec_wf in H. destruct H as (Wm & S & _). unfold wf_macsec in Wm.
      rewrite (macsec_fields_ok _ (sub_of_in_buf _ _ _ I S) Wm). reflexivity.
  Qed.

  Lemma ipv4_layers_ok src v :
    in_buf bs src -> wf_ipv4 v /\ ipv4_in v src -> net_fields (NtIpv4 v) = Ok (spec_net bs (view_net (NtIpv4 v))).
  Proof.
    intros I ((Wh & Wa) & (Sh & Sa & _)). cbn [net_fields view_net spec_net].
    destruct Wh as (L1 & L2).
    rewrite (ipv4_fields_ok _ (sub_of_in_buf _ _ _ I Sh) L1). cbn [bind].
    destruct (v4_auth v) as [a|]; cbn [option_map bind].
    - rewrite (ah_fields_ok a (sub_of_in_buf _ _ _ I Sa) Wa). reflexivity.
    - reflexivity.
  Qed.

  Lemma ipv6_layers_ok src v :
    in_buf bs src -> wf_ipv6 v /\ ipv6_in v src ->
    (exists nh, rdU (v6_header v) 6 = Ok nh /\
      (x6_first (v6_exts v) = Some nh \/
       (x6_first (v6_exts v) = None /\ s_len (x6_slice (v6_exts v)) = 0))) ->
    net_fields (NtIpv6 v) = Ok (spec_net bs (view_net (NtIpv6 v))).
  Proof.
    intros I ((Wh & (l & El & G)) & (Sh & Sx & _)) (nh & Enh & F).
    cbn [net_fields view_net spec_net]. unfold wf_ipv6h in Wh.
    pose proof (sub_of_in_buf _ _ _ I Sh) as Ih. pose proof (sub_of_in_buf _ _ _ I Sx) as Ix.
    rewrite (ipv6_fields_ok _ Ih Wh). cbn [bind]. rewrite El. cbn [bind].
    pose proof (in_buf_repr _ _ Ih) as Rh. pose proof (in_buf_repr _ _ Ix) as Rx.
    rewrite (repr_rdU _ _ _ _ 6 Rh) in Enh by lia. injection Enh as <-.
    destruct G as (_ & _ & Wl & _).
    unfold Ipv6ExtIterA.items, Ipv6ExtIterA.into_iter in El. rewrite s_len_length in El.
    unfold win_of. cbn [fst snd].
    destruct F as [F|(F & L0)]; rewrite F in El.
    - rewrite (chain_fields_ok _ _ _ _ _ _ Rx El Wl). reflexivity.
    - rewrite L0 in *. rewrite N.add_0_r in *.
      rewrite (chain_fields_ok _ _ _ _ _ _ Rx El Wl). cbn [N.to_nat]. rewrite !chain_spec_empty. reflexivity.
  Qed.

  Lemma net_fields_ok n : net_prov bs n -> net_fields n = Ok (spec_net bs (view_net n)).
  Proof.
    destruct n as [v|v|a]; cbn [net_prov].
    - intros (src & I & H). apply (ipv4_layers_ok src v I).
      destruct H as [H|H]; [now apply ipv4_wf|exact (ip_wf _ _ H)].
    - intros (src & I & H). apply (ipv6_layers_ok src v I).
      + destruct H as [H|H]; [now apply ipv6_wf|exact (ip_wf _ _ H)].
      + exact (ipv6_first src v H).
    - intros (src & I & H). apply arp_wf in H. destruct H as (Wa & S).
      cbn [net_fields view_net spec_net].
      rewrite (arp_fields_ok a (sub_of_in_buf _ _ _ I S) Wa). reflexivity.
  Qed.

  Lemma transport_fields_ok t : transport_prov bs t -> transport_fields t = Ok (spec_tr bs (view_tr t)).
  Proof.
    destruct t as [s|hl s|s|s]; cbn [transport_prov transport_fields view_tr spec_tr].
    - intros (src & I & H). apply udp_wf in H. destruct H as (L & S). unfold wf_udp in L.
      rewrite (udp_fields_ok s (sub_of_in_buf _ _ _ I S) L). reflexivity.
    - intros (src & I & H). apply tcp_wf in H. destruct H as ((L1 & L2 & _) & E). cbn [fst snd] in *. subst src.
      rewrite (tcp_fields_ok hl s I L1 L2). reflexivity.
    - intros (src & I & H). apply icmp4_wf in H. destruct H as (-> & (L & _)).
      rewrite (icmp4_fields_ok src I L). reflexivity.
    - intros (src & I & H). apply icmp6_wf in H. destruct H as (-> & L). unfold wf_icmp6 in L.
      rewrite (icmp6_fields_ok src I L). reflexivity.
  Qed.

  Lemma mapM_ext_ok xs : Forall (ext_prov bs) xs -> mapM ext_fields xs = Ok (map (spec_ext bs) (map view_ext xs)).
  Proof.
    induction 1 as [|x xs Hx _ IH]; [reflexivity|].
    cbn [mapM map]. rewrite (ext_fields_ok x Hx). cbn [bind]. rewrite IH. reflexivity.
  Qed.

  Theorem fields_of_wf p : sliced_wf bs p -> fields_of_packet p = Ok (spec_fields bs (view p)).
  Proof.
    intros (A & X & C & D). unfold fields_of_packet, spec_fields, view.
    cbn [v_link v_exts v_net v_transport].
    assert (EA : ropt link_fields (sp_link p) = Ok (sopt (spec_link bs) (option_map view_link (sp_link p)))).
    { destruct (sp_link p) as [l|]; cbn [ropt sopt option_map optP] in *; [now apply link_fields_ok|reflexivity]. }
    assert (EC : ropt net_fields (sp_net p) = Ok (sopt (spec_net bs) (option_map view_net (sp_net p)))).
    { destruct (sp_net p) as [n|]; cbn [ropt sopt option_map optP] in *; [now apply net_fields_ok|reflexivity]. }
    assert (ED : ropt transport_fields (sp_transport p) =
                 Ok (sopt (spec_tr bs) (option_map view_tr (sp_transport p)))).
    { destruct (sp_transport p) as [t|]; cbn [ropt sopt option_map optP] in *;
        [now apply transport_fields_ok|reflexivity]. }
    rewrite EA. cbn [bind]. rewrite (mapM_ext_ok _ X). cbn [bind]. rewrite EC. cbn [bind]. rewrite ED.
    reflexivity.
  Qed.
End Link.

Theorem fields_from_ethernet bs p : bytes_ok bs ->
  SlicedPacket.from_ethernet bs = Ok p -> fields_of_packet p = Ok (spec_fields bs (view p)).
Proof. intros Hok H. apply (fields_of_wf bs Hok). apply (sliced_wf_entry bs 0 p). auto. Qed.

Theorem fields_from_linux_sll bs p : bytes_ok bs ->
  SlicedPacket.from_linux_sll bs = Ok p -> fields_of_packet p = Ok (spec_fields bs (view p)).
Proof. intros Hok H. apply (fields_of_wf bs Hok). apply (sliced_wf_entry bs 0 p). auto. Qed.

Theorem fields_from_ether_type bs et p : bytes_ok bs ->
  SlicedPacket.from_ether_type et bs = Ok p -> fields_of_packet p = Ok (spec_fields bs (view p)).
Proof. intros Hok H. apply (fields_of_wf bs Hok). apply (sliced_wf_entry bs et p). auto. Qed.

Theorem fields_from_ip bs p : bytes_ok bs ->
  SlicedPacket.from_ip bs = Ok p -> fields_of_packet p = Ok (spec_fields bs (view p)).
Proof. intros Hok H. apply (fields_of_wf bs Hok). apply (sliced_wf_entry bs 0 p). auto. Qed.

(* ---- together with the C03 refinement: the layers whose fields are listed are the layers
   of the reference decoder (Parse/WireSpec.v), at its windows ------------------------------- *)
Theorem fields_wire_from_ethernet bs p : bytes_ok bs -> SlicedPacket.from_ethernet bs = Ok p ->
  wire_ethernet bs = VOk (view p) /\ fields_of_packet p = Ok (spec_fields bs (view p)).
Proof.
  intros Hok H. split; [|now apply fields_from_ethernet].
  exact (res_rel_ok _ _ _ (StrictProofs.from_ethernet_rel bs Hok) H).
Qed.

Theorem fields_wire_from_linux_sll bs p : bytes_ok bs -> SlicedPacket.from_linux_sll bs = Ok p ->
  wire_linux_sll bs = VOk (view p) /\ fields_of_packet p = Ok (spec_fields bs (view p)).
Proof.
  intros Hok H. split; [|now apply fields_from_linux_sll].
  exact (res_rel_ok _ _ _ (StrictProofs.from_linux_sll_rel bs Hok) H).
Qed.

Theorem fields_wire_from_ether_type bs et p : bytes_ok bs -> SlicedPacket.from_ether_type et bs = Ok p ->
  wire_ether_type bs et = VOk (view p) /\ fields_of_packet p = Ok (spec_fields bs (view p)).
Proof.
  intros Hok H. split; [|now apply (fields_from_ether_type bs et)].
  exact (res_rel_ok _ _ _ (StrictProofs.from_ether_type_rel bs et Hok) H).
Qed.

Theorem fields_wire_from_ip bs p : bytes_ok bs -> SlicedPacket.from_ip bs = Ok p ->
  wire_from_ip bs = VOk (view p) /\ fields_of_packet p = Ok (spec_fields bs (view p)).
Proof.
  intros Hok H. split; [|now apply fields_from_ip].
  exact (res_rel_ok _ _ _ (StrictProofs.from_ip_rel bs Hok) H).
Qed.
