(* Parse/HdrLaxSlots2.v -- property C04, the LAX pair: the slot-by-slot agreement over whole
   packets, read off the lock-step of HdrLaxProofs3.v with lnet6_rel as the relation carried for
   the IPv6 network layer. *)
From Coq Require Import ZArith List.
From EP Require Import Base.Bytes Parse.Types Parse.Slices Parse.Cursor Parse.View Parse.Access
  Parse.LaxSlices Parse.LaxCursor Parse.LaxView
  Parse.HdrModel Parse.HdrView Parse.HdrCut Parse.HdrProofs Parse.HdrProofs3
  Parse.HdrLaxModel Parse.HdrLaxView Parse.HdrLaxCut Parse.HdrLaxProofs3 Parse.HdrSlots Parse.HdrLaxSlots.
Import ListNotations.
Import LaxSlicedPacketCursor.
Import LaxPacketHeaders.

Local Open Scope N_scope.

(* IpHeaders::from_slice_lax and the cut LaxIpSlice::from_slice establish lnet6_rel: what the
   lock-step of HdrLaxProofs3.v asks for *)
Lemma lnet6_ip : lip_sound lnet6_rel.
Proof.
  intros s ih p st i st' Hok Eh Ec. pose proof (lax_ip_slots s Hok) as A. rewrite Eh, Ec in A.
  intros hd x v X V. destruct (A hd x X) as (v' & -> & R). now injection V as <-.
Qed.

Definition lax_slots_in_order (h : res lhpacket) (s : res lax_sliced_packet) : Prop :=
  forall hp hd x, h = Ok hp -> lh_net hp = Some (HnIp (IhV6 hd x)) ->
  exists sp v first l nh_end,
    s = Ok sp /\ lsp_net sp = Some (LNtIpv6 v) /\ lv6_header v = hd /\
    Ipv6HeaderSlice.next_header hd = Ok first /\
    Ipv6ExtIterA.items (lv6_exts v) = Ok l /\
    slots_hold x l /\
    chain (x6_slice (lv6_exts v)) 0 first l (exts6_len x) nh_end /\
    win_of (x6_slice (lv6_exts v)) = (s_off hd + 40, exts6_len x).

Lemma lslots_of_rel f h s : lhagree f h s /\ lpk6_rel lnet6_rel h s -> lax_slots_in_order h s.
Proof.
  intros (A & R) hp hd x -> Hn. unfold lhagree in A. destruct s as [sp|e|b]; try contradiction.
  destruct (R hd x Hn) as (v & Ev & Hv & nh0 & Enh & (l & nh' & Hi & Hs & Hc & Hl) & Off).
  exists sp, v, nh0, l, nh'. rewrite <- Hl.
  split; [reflexivity|]. split; [exact Ev|]. split; [exact Hv|]. split; [exact Enh|].
  split; [exact Hi|]. split; [exact Hs|]. split; [exact Hc|].
  unfold win_of. now rewrite Off.
Qed.

Theorem lax_hdr_slots_in_order bs et : bytes_ok bs ->
  lax_slots_in_order (LaxPacketHeaders.from_ethernet bs) (LaxCut.from_ethernet true bs) /\
  lax_slots_in_order (LaxPacketHeaders.from_ether_type et bs) (LaxCut.from_ether_type true et bs) /\
  lax_slots_in_order (LaxPacketHeaders.from_ip bs) (LaxCut.from_ip true bs).
Proof.
  intros Hok. split; [|split].
  - exact (lslots_of_rel true _ _ (llockstep_ethernet lnet6_rel lnet6_ip bs Hok)).
  - exact (lslots_of_rel true _ _ (llockstep_ether_type lnet6_rel lnet6_ip et bs Hok)).
  - destruct (F11 bs) eqn:Hf.
    + destruct (lax_hdr_f11_both_err bs Hf) as (e & e' & E & _). intros hp hd x H. rewrite E in H. discriminate H.
    + exact (lslots_of_rel true _ _ (llockstep_ip lnet6_rel lnet6_ip bs Hok Hf)).
Qed.
