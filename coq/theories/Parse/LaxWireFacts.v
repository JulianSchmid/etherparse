(* Parse/LaxWireFacts.v -- facts about the lax reference decoder of LaxWire.v (pure functions over
   absolute positions; no slices here), transferred to the lax model through LaxWireProofs.v:
   (d) for whole packets, the incomplete flags against the length fields read from the buffer. *)
From EP Require Import Base.Bytes Parse.Types Parse.WireSpec Parse.LaxSlices Parse.LaxCursor
  Parse.LaxView Parse.LaxWire Parse.LaxSecTag Parse.LaxWireProofs.
From Coq Require Import ZArith Lia ZifyN ZifyBool.
Local Open Scope N_scope.

Lemma lstop_exts p e : lv_exts (lstop p e) = lv_exts p. Proof. reflexivity. Qed.
Lemma lstop_net p e : lv_net (lstop p e) = lv_net p. Proof. reflexivity. Qed.

Lemma ltransport_keeps bs p ipn frag psrc pos lim :
  lv_link (lwire_transport bs p ipn frag psrc pos lim) = lv_link p /\
  lv_exts (lwire_transport bs p ipn frag psrc pos lim) = lv_exts p /\
  lv_net (lwire_transport bs p ipn frag psrc pos lim) = lv_net p.
Proof.
  unfold lwire_transport, lwire_icmp4, lwire_udp, lwire_tcp, lwire_icmp6, lcut.
  repeat match goal with |- context[if ?c then _ else _] => destruct c end; repeat split.
Qed.

Lemma ah_dec_inl bs zero src pos lim l next :
  ah_dec bs zero src pos lim = inl (l, next) -> 12 <= l /\ l <= lim - pos.
Proof.
  unfold ah_dec. destruct (lim - pos <? 12) eqn:E; [discriminate|].
  destruct (B bs (pos + 1) =? 0) eqn:Ez; [discriminate|].
  destruct (lim - pos <? (B bs (pos + 1) + 2) * 4) eqn:El; [discriminate|].
  intros H. injection H as <- _. lia.
Qed.

Lemma lchain_bounds bs fuel src : forall pos lim nh frag, pos <= lim ->
  let '(e, _, _, _) := lwire_chain bs fuel src pos lim nh frag in pos <= e /\ e <= lim.
Proof.
  induction fuel as [|f IH]; intros pos lim nh frag Hp; cbn [lwire_chain]; [lia|].
  destruct (nh =? 0); [lia|].
  destruct ((nh =? 60) || (nh =? 43)).
  { destruct (lim - pos <? 8) eqn:E8; [lia|].
    destruct (lim - pos <? (B bs (pos + 1) + 1) * 8) eqn:El; [lia|].
    specialize (IH (pos + (B bs (pos + 1) + 1) * 8) lim (B bs pos) frag ltac:(lia)).
    destruct (lwire_chain _ _ _ _ _ _ _) as [[[e nx] fr] st]. lia. }
  destruct (nh =? 44).
  { destruct (lim - pos <? 8) eqn:E8; [lia|].
    match goal with |- context[lwire_chain bs f src (pos + 8) lim (B bs pos) ?fr] =>
      specialize (IH (pos + 8) lim (B bs pos) fr ltac:(lia)) end.
    destruct (lwire_chain _ _ _ _ _ _ _) as [[[e nx] fr] st]. lia. }
  destruct (nh =? 51); [|lia].
  destruct (ah_dec bs CeIpv6AuthZeroPayloadLen src pos lim) as [[l next]|e0] eqn:Ea; [|lia].
  apply ah_dec_inl in Ea.
  specialize (IH (pos + l) lim next frag ltac:(lia)).
  destruct (lwire_chain _ _ _ _ _ _ _) as [[[e nx] fr] st]. lia.
Qed.

Lemma lexts_bounds bs fuel src pos lim nh : pos <= lim ->
  let '(e, _, _, _) := lwire_exts bs fuel src pos lim nh in pos <= e /\ e <= lim.
Proof.
  intros Hp. unfold lwire_exts. destruct (nh =? 0).
  - destruct (lim - pos <? 8) eqn:E8; [lia|].
    destruct (lim - pos <? (B bs (pos + 1) + 1) * 8) eqn:El; [lia|].
    pose proof (lchain_bounds bs fuel src (pos + (B bs (pos + 1) + 1) * 8) lim (B bs pos) false ltac:(lia)) as H.
    destruct (lwire_chain _ _ _ _ _ _ _) as [[[e nx] fr] st]. lia.
  - apply lchain_bounds. exact Hp.
Qed.

Lemma ip_parts_flags bs csrc pos lim :
  pos <= lim -> ip_hdr_fault bs csrc pos lim = None ->
  let '(net, pl, st, lim') := lwire_ip_parts bs csrc pos lim in
  net_flag_ok bs (pos, lim - pos) net.
Proof.
  intros Hp. unfold ip_hdr_fault, lwire_ip_parts.
  destruct (lim - pos =? 0) eqn:E0; [discriminate|].
  destruct (B bs pos / 16 =? 4) eqn:E4.
  - destruct (B bs pos mod 16 <? 5) eqn:Ei; [discriminate|].
    set (hl := B bs pos mod 16 * 4) in *.
    destruct (lim - pos <? hl) eqn:Eh; [discriminate|]. intros _.
    assert (V4 : forall lim' psrc inc,
              pos + hl <= lim' ->
              inc = (lim - pos <? W bs (pos + 2)) -> (inc = true -> psrc = LsSlice /\ lim' = lim) ->
              let '(net, pl, st, l') := lwire_ipv4_parts bs csrc pos hl lim' psrc inc in
              net_flag_ok bs (pos, lim - pos) net).
    { intros lim' psrc inc Hl Hinc Htrue. unfold lwire_ipv4_parts.
      assert (G : forall auth next pp (st : option stop_error),
                 pos + hl <= pp -> pp <= lim' ->
                 net_flag_ok bs (pos, lim - pos)
                   (LVIpv4 (pos, hl) auth (mkLVIp inc next (ipv4_fragmented bs pos) psrc (pp, lim' - pp)))).
      { intros auth next pp st H1 H2. unfold net_flag_ok, ip_flag_ok, win_end. cbn.
        split; [reflexivity|]. split; [exact Hinc|]. intros Ht. destruct (Htrue Ht) as (-> & ->).
        split; [reflexivity|lia]. }
      destruct (B bs (pos + 9) =? 51).
      - destruct (ah_dec bs CeAuthZeroPayloadLen (pick_src psrc csrc) (pos + hl) lim') as [[ahl next]|e] eqn:Ea.
        + apply ah_dec_inl in Ea. apply (G _ _ _ None); lia.
        + apply (G _ _ _ None); lia.
      - apply (G _ _ _ None); lia. }
    destruct (W bs (pos + 2) <? hl) eqn:Et.
    { apply V4; [lia| |discriminate]. symmetry. apply N.ltb_ge. lia. }
    destruct (lim - pos <? W bs (pos + 2)) eqn:Et2.
    { apply V4; [lia|reflexivity|auto]. }
    apply V4; [lia|reflexivity|discriminate].
  - destruct (B bs pos / 16 =? 6) eqn:E6; [|discriminate].
    destruct (lim - pos <? 40) eqn:E40; [discriminate|]. intros _.
    assert (V6 : forall lim' psrc inc,
              pos + 40 <= lim' ->
              inc = (lim - pos <? 40 + W bs (pos + 4)) -> (inc = true -> psrc = LsSlice /\ lim' = lim) ->
              let '(net, pl, st, l') := lwire_ipv6_parts bs csrc pos lim' psrc inc in
              net_flag_ok bs (pos, lim - pos) net).
    { intros lim' psrc inc Hl Hinc Htrue. unfold lwire_ipv6_parts.
      pose proof (lexts_bounds bs (S (N.to_nat (lim' - (pos + 40)))) (pick_src psrc csrc) (pos + 40) lim'
                    (B bs (pos + 6)) Hl) as Bd.
      destruct (lwire_exts _ _ _ _ _ _) as [[[e nx] fr] st].
      unfold net_flag_ok, ip_flag_ok, win_end. cbn.
      split; [reflexivity|]. split; [exact Hinc|]. intros Ht. destruct (Htrue Ht) as (-> & ->).
      split; [reflexivity|lia]. }
    destruct ((W bs (pos + 4) =? 0) && (40 <? lim - pos)) eqn:Ez.
    { apply V6; [lia| |discriminate]. symmetry. apply N.ltb_ge. lia. }
    destruct (lim - pos <? 40 + W bs (pos + 4)) eqn:El.
    { apply V6; [lia|reflexivity|auto]. }
    apply V6; [lia|reflexivity|discriminate].
Qed.

Lemma exts_flags_snoc bs enc xs x :
  exts_flags_ok bs enc (xs ++ [x]) <-> exts_flags_ok bs enc xs /\ ext_flag_ok bs (enc_after enc xs) x.
Proof.
  revert enc. induction xs as [|y r IH]; intros enc; cbn [app exts_flags_ok enc_after].
  - tauto.
  - rewrite IH. tauto.
Qed.

Lemma enc_after_snoc enc xs x : enc_after enc (xs ++ [x]) = ext_next x.
Proof. revert enc. induction xs as [|y r IH]; intros enc; cbn [app enc_after]; [reflexivity|apply IH]. Qed.

Lemma ip_flags bs p csrc pos lim enc0 :
  pos <= lim ->
  exts_flags_ok bs enc0 (lv_exts p) -> enc_after enc0 (lv_exts p) = (pos, lim - pos) ->
  ip_hdr_fault bs csrc pos lim = None ->
  packet_flags_ok bs enc0 (lwire_ip_body bs p csrc pos lim).
Proof.
  intros Hp Hx Henc HF. unfold lwire_ip_body.
  pose proof (ip_parts_flags bs csrc pos lim Hp HF) as F.
  destruct (lwire_ip_parts bs csrc pos lim) as [[[net pl] st] lim'].
  unfold packet_flags_ok.
  destruct (ltransport_keeps bs (lstop_opt (lwith_net p net) st) (lvip_number pl) (lvip_frag pl)
              (lvip_src pl) (fst (lvip_win pl)) lim') as (_ & K1 & K2).
  rewrite K1, K2. destruct st; cbn; (split; [exact Hx|]); rewrite Henc; exact F.
Qed.

Lemma macsec_flag_ok bs pos lim hl body unmod has_sl inc pl :
  sectag_dec bs pos lim = StOk hl body unmod has_sl inc ->
  let short := has_sl && negb inc in
  let lim' := if short then pos + hl + body else lim in
  (match pl with LVMpUnmodified e => lvep_incomplete e | LVMpModified i _ => i end) = inc ->
  (match pl with LVMpUnmodified e => lvep_win e | LVMpModified _ w => w end) = (pos + hl, lim' - (pos + hl)) ->
  (match pl with
   | LVMpUnmodified e => lvep_src e = (if short then LsMacsecShortLength else LsSlice)
   | LVMpModified _ _ => True
   end) ->
  ext_flag_ok bs (pos, lim - pos) (LVMacsec (pos, hl) pl).
Proof.
  intros Ed short lim' H1 H2 H3.
  destruct (sectag_ok _ _ _ _ _ _ _ _ Ed) as (_ & _ & Hhl & Eb & Es & _ & Ei).
  unfold ext_flag_ok. cbn [fst snd]. rewrite H1, H2.
  split; [reflexivity|]. split; [rewrite Ei, Es, Eb; reflexivity|].
  intros Ht. subst short lim'. rewrite Ht, Bool.andb_false_r in *.
  unfold win_end. cbn [fst snd]. split; [f_equal; lia|]. split; [lia|]. destruct pl; [exact H3|exact I].
Qed.

Lemma ether_flags bs cap : forall p et csrc pos lim enc0,
  pos <= lim ->
  exts_flags_ok bs enc0 (lv_exts p) -> enc_after enc0 (lv_exts p) = (pos, lim - pos) ->
  lv_net p = None ->
  packet_flags_ok bs enc0 (lwire_ether bs cap p et csrc pos lim).
Proof.
  assert (Keep : forall p enc0, exts_flags_ok bs enc0 (lv_exts p) -> lv_net p = None ->
                   packet_flags_ok bs enc0 p).
  { intros p enc0 H1 H2. unfold packet_flags_ok. rewrite H2. auto. }
  assert (KeepS : forall p e enc0, exts_flags_ok bs enc0 (lv_exts p) -> lv_net p = None ->
                   packet_flags_ok bs enc0 (lstop p e)).
  { intros p e enc0 H1 H2. apply Keep; assumption. }
  assert (Net : forall c p et csrc pos lim enc0,
            is_vlan et = false -> (et =? 35045) = false ->
            pos <= lim -> exts_flags_ok bs enc0 (lv_exts p) -> enc_after enc0 (lv_exts p) = (pos, lim - pos) ->
            lv_net p = None ->
            packet_flags_ok bs enc0 (lwire_ether bs c p et csrc pos lim)).
  { intros c p et csrc pos lim enc0 Ev Em Hp Hx Henc Hn. rewrite lwire_ether_net by assumption.
    destruct (et =? 2054).
    { unfold lwire_arp, lcut. destruct (lim - pos <? 8); [now apply KeepS|].
      destruct (lim - pos <? _); [now apply KeepS|].
      unfold packet_flags_ok. cbn. auto. }
    destruct ((et =? 2048) || (et =? 34525)); [|now apply Keep].
    unfold lwire_ip. destruct (ip_hdr_fault bs csrc pos lim) eqn:HF; [now apply KeepS|].
    now apply ip_flags. }
  induction cap as [|cap IH]; intros p et csrc pos lim enc0 Hp Hx Henc Hn.
  - destruct (is_vlan et) eqn:Ev; [rewrite lwire_ether_full by (now rewrite Ev); now apply Keep|].
    destruct (et =? 35045) eqn:Em; [rewrite lwire_ether_full by (now rewrite Ev, Em); now apply Keep|].
    now apply Net.
  - destruct (is_vlan et) eqn:Ev.
    { rewrite lwire_ether_vlan by exact Ev.
      unfold lcut. destruct (lim - pos <? 4) eqn:E4; [now apply KeepS|].
      apply IH; cbn [lwith_ext lv_exts lv_net]; auto; [lia| |].
      - apply exts_flags_snoc. split; [exact Hx|]. rewrite Henc. reflexivity.
      - rewrite enc_after_snoc. cbn. f_equal. lia. }
    destruct (et =? 35045) eqn:Em; [|now apply Net].
    apply N.eqb_eq in Em. rewrite Em, lwire_ether_macsec.
    destruct (sectag_dec bs pos lim) as [req|c|hl body unmod has_sl inc] eqn:Ed;
      [now apply KeepS|now apply KeepS|].
    cbv zeta.
    assert (Hl' : pos + hl <= (if has_sl && negb inc then pos + hl + body else lim)).
    { destruct (sectag_ok _ _ _ _ _ _ _ _ Ed) as (_ & _ & Hhl & _). destruct (has_sl && negb inc); lia. }
    destruct unmod.
    + apply IH; cbn [lwith_ext lv_exts lv_net]; auto.
      * apply exts_flags_snoc. split; [exact Hx|]. rewrite Henc. now apply (macsec_flag_ok _ _ _ _ _ _ _ _ _ Ed).
      * rewrite enc_after_snoc. reflexivity.
    + apply Keep; cbn [lwith_ext lv_exts lv_net]; auto.
      apply exts_flags_snoc. split; [exact Hx|]. rewrite Henc. now apply (macsec_flag_ok _ _ _ _ _ _ _ _ _ Ed).
Qed.

(* (d) for the lax model: whole-packet entry points *)
Lemma lvok_inj a b : LVOk a = LVOk b -> a = b.
Proof. intros H. now injection H. Qed.

Theorem lax_incomplete_iff_packet bs et r' :
  bytes_ok bs ->
  (LaxSlicedPacket.from_ethernet bs = Ok r' -> packet_flags_ok bs (14, len bs - 14) (lview r')) /\
  (LaxSlicedPacket.from_ether_type et bs = Ok r' -> packet_flags_ok bs (0, len bs) (lview r')) /\
  (LaxSlicedPacket.from_ip bs = Ok r' -> packet_flags_ok bs (0, len bs) (lview r')).
Proof.
  intros Hok. split; [|split]; intros E.
  - pose proof (lax_from_ethernet_eq bs Hok) as Q. rewrite E in Q. unfold lwire_ethernet, n_bs in Q.
    destruct (len bs <? 14) eqn:E14; [discriminate|]. apply lvok_inj in Q. rewrite Q.
    apply ether_flags; [lia|exact I|reflexivity|reflexivity].
  - pose proof (lax_from_ether_type_eq bs et Hok) as Q. rewrite E in Q. unfold lwire_ether_type, n_bs in Q.
    apply lvok_inj in Q. rewrite Q.
    apply ether_flags; [lia|exact I| |reflexivity]. cbn [lv_exts enc_after]. f_equal. lia.
  - pose proof (lax_from_ip_eq bs Hok) as Q. rewrite E in Q. unfold lwire_from_ip, n_bs in Q.
    destruct (ip_hdr_fault bs LsSlice 0 (len bs)) eqn:HF; [discriminate|]. apply lvok_inj in Q. rewrite Q.
    apply ip_flags; [lia|exact I| |exact HF]. cbn [lv_exts lempty_packet enc_after]. f_equal. lia.
Qed.
