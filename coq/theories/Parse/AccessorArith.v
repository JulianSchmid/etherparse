(* Fixed-width overflow (C02) in the ACCESSORS of the slice types (Parse/Access.v) that add or
   multiply usize values:

     LinuxSllHeaderSlice::sender_address      &self.slice[6..min(6 + length, 6 + 8)]
     MacsecHeaderSlice::header_len            6 + (8|0) + (2|0)
     ArpPacketSlice::sender_protocol_addr     ptr.add(8 + hw)
     ArpPacketSlice::target_hw_addr           ptr.add(8 + hw + pr)
     ArpPacketSlice::target_protocol_addr     ptr.add(8 + hw * 2 + pr)
     Ipv6RawExtHeaderSlice::from_slice_unchecked   (slice[1] + 1) * 8
     IpAuthHeaderSlice::from_slice_unchecked       (slice[1] + 2) * 4
         (these two are what the extension iterator runs on every header)
     TcpHeaderSlice::options                  &self.slice[20..data_offset() * 4]

   (Ipv4HeaderSlice has no usize product in its accessors: ihl() is returned as u8, options
   is &slice[20..], payload_len subtracts u16 values -- a checked subtraction in the model;
   the `ihl * 4` of the constructors is in Parse/UsizeBounds.v.  TcpSlice keeps header_len as
   a field.)  Each is written once more with every `+` / `*` checked against a usize of M
   values (addC / mulC of UsizeBounds.v); for every M >= 2^17 and every slice of bytes the
   checked accessor IS the accessor of Parse/Access.v: every operand is a widened u8 / u16
   field or a constant (6 + 65535, 8 + 255*2 + 255, 256*8, 257*4, 15*4). *)
From EP Require Import Base.Bytes Parse.Types Parse.Access Parse.AccessProofs Parse.UsizeBounds.
From Coq Require Import ZArith Lia ZifyN ZifyBool.

Local Open Scope N_scope.

Section Checked.
  Variable M : N.

  Definition sll_sender_addressC (h : slice) : res slice :=
    let* length := LinuxSllHeaderA.sender_address_valid_length h in
    let* a := addC M 6 length in
    let* b := addC M 6 8 in
    idx_range h 6 (N.min a b).

  Definition macsec_header_lenC (h : slice) : res N :=
    let* sc := MacsecHeaderA.sci_present h in
    let* un := MacsecHeaderA.is_unmodified h in
    let* a := addC M 6 (if sc then 8 else 0) in
    addC M a (if un then 2 else 0).

  Definition arp_sender_protocol_addrC (a : slice) : res slice :=
    let* hw := ArpPacketA.hw_addr_size a in
    let* pr := ArpPacketA.proto_addr_size a in
    let* o := addC M 8 hw in
    subU a o pr.
  Definition arp_target_hw_addrC (a : slice) : res slice :=
    let* hw := ArpPacketA.hw_addr_size a in
    let* pr := ArpPacketA.proto_addr_size a in
    let* hw' := ArpPacketA.hw_addr_size a in
    let* o1 := addC M 8 hw in
    let* o := addC M o1 pr in
    subU a o hw'.
  Definition arp_target_protocol_addrC (a : slice) : res slice :=
    let* hw := ArpPacketA.hw_addr_size a in
    let* pr := ArpPacketA.proto_addr_size a in
    let* pr' := ArpPacketA.proto_addr_size a in
    let* hw2 := mulC M hw 2 in
    let* o1 := addC M 8 hw2 in
    let* o := addC M o1 pr in
    subU a o pr'.

  Definition raw_from_slice_uncheckedC (s : slice) : res slice :=
    let* b := rdU s 1 in
    let* b1 := addC M b 1 in
    let* l := mulC M b1 8 in
    subU s 0 l.
  Definition auth_from_slice_uncheckedC (s : slice) : res slice :=
    let* b := rdU s 1 in
    let* b2 := addC M b 2 in
    let* l := mulC M b2 4 in
    subU s 0 l.

  Definition tcp_optionsC (h : slice) : res slice :=
    let* d := TcpFieldsA.data_offset h in
    let* e := mulC M d 4 in
    idx_range h 20 e.

  Hypothesis HM : 2 ^ 17 <= M.

  Lemma P17 : 2 ^ 17 = 131072. Proof. reflexivity. Qed.

  Lemma rd16_lt s i x : bytes_ok (snd s) -> rd16 s i = Ok x -> x < 65536.
  Proof.
    intros Hok. unfold rd16.
    destruct (rdU s i) as [a|?|?] eqn:Ea; cbn [bind]; try discriminate.
    destruct (rdU s (i + 1)) as [c|?|?] eqn:Ec; cbn [bind]; try discriminate.
    intros H. injection H as <-.
    pose proof (rdU_byte s i a Hok Ea). pose proof (rdU_byte s (i + 1) c Hok Ec). unfold be16. lia.
  Qed.

  Lemma sll_sender_addressC_eq h : bytes_ok (snd h) ->
    sll_sender_addressC h = LinuxSllHeaderA.sender_address h.
  Proof.
    intros Hok. unfold sll_sender_addressC, LinuxSllHeaderA.sender_address. pose proof P17.
    destruct (LinuxSllHeaderA.sender_address_valid_length h) as [l|e|b] eqn:El; cbn [bind]; try reflexivity.
    pose proof (rd16_lt h 4 l Hok El).
    rewrite addC_ok by lia. cbn [bind]. rewrite addC_ok by lia. reflexivity.
  Qed.

  Lemma macsec_header_lenC_eq h : macsec_header_lenC h = MacsecHeaderA.header_len h.
  Proof.
    unfold macsec_header_lenC, MacsecHeaderA.header_len. pose proof P17.
    destruct (MacsecHeaderA.sci_present h) as [sc|e|b]; cbn [bind]; try reflexivity.
    destruct (MacsecHeaderA.is_unmodified h) as [un|e|b]; cbn [bind]; try reflexivity.
    rewrite addC_ok by (destruct sc; lia). cbn [bind].
    rewrite addC_ok by (destruct sc, un; lia). reflexivity.
  Qed.

  Lemma arpC_eq a : bytes_ok (snd a) ->
    arp_sender_protocol_addrC a = ArpPacketA.sender_protocol_addr a /\
    arp_target_hw_addrC a = ArpPacketA.target_hw_addr a /\
    arp_target_protocol_addrC a = ArpPacketA.target_protocol_addr a.
  Proof.
    intros Hok. pose proof P17.
    unfold arp_sender_protocol_addrC, arp_target_hw_addrC, arp_target_protocol_addrC,
      ArpPacketA.sender_protocol_addr, ArpPacketA.target_hw_addr, ArpPacketA.target_protocol_addr,
      ArpPacketA.hw_addr_size, ArpPacketA.proto_addr_size.
    destruct (rdU a 4) as [hw|e|b] eqn:E4; cbn [bind]; [|repeat split..].
    destruct (rdU a 5) as [pr|e|b] eqn:E5; cbn [bind]; [|repeat split..].
    pose proof (rdU_byte a 4 hw Hok E4). pose proof (rdU_byte a 5 pr Hok E5).
    rewrite (mulC_ok M hw 2) by lia. cbn [bind].
    rewrite (addC_ok M 8 hw) by lia. rewrite (addC_ok M 8 (hw * 2)) by lia. cbn [bind].
    rewrite (addC_ok M (8 + hw) pr) by lia. rewrite (addC_ok M (8 + hw * 2) pr) by lia.
    repeat split.
  Qed.

  Lemma raw_from_slice_uncheckedC_eq s : bytes_ok (snd s) ->
    raw_from_slice_uncheckedC s = Ipv6RawExtHeaderA.from_slice_unchecked s.
  Proof.
    intros Hok. unfold raw_from_slice_uncheckedC, Ipv6RawExtHeaderA.from_slice_unchecked. pose proof P17.
    destruct (rdU s 1) as [b|e|n] eqn:E1; cbn [bind]; try reflexivity.
    pose proof (rdU_byte s 1 b Hok E1).
    rewrite addC_ok by lia. cbn [bind]. rewrite mulC_ok by lia. reflexivity.
  Qed.

  Lemma auth_from_slice_uncheckedC_eq s : bytes_ok (snd s) ->
    auth_from_slice_uncheckedC s = Ipv6ExtIterA.auth_from_slice_unchecked s.
  Proof.
    intros Hok. unfold auth_from_slice_uncheckedC, Ipv6ExtIterA.auth_from_slice_unchecked. pose proof P17.
    destruct (rdU s 1) as [b|e|n] eqn:E1; cbn [bind]; try reflexivity.
    pose proof (rdU_byte s 1 b Hok E1).
    rewrite addC_ok by lia. cbn [bind]. rewrite mulC_ok by lia. reflexivity.
  Qed.

  Lemma tcp_optionsC_eq h : tcp_optionsC h = TcpHeaderSliceA.options h.
  Proof.
    unfold tcp_optionsC, TcpHeaderSliceA.options, TcpFieldsA.data_offset. pose proof P17.
    destruct (rdU h 12) as [b|e|n]; cbn [bind]; try reflexivity.
    pose proof (tcp_hl_le b). rewrite <- (tcp_do_hl b) in *.
    rewrite mulC_ok by lia. reflexivity.
  Qed.
End Checked.

Theorem accessor_arith_bounds : forall M s, 2 ^ 17 <= M -> bytes_ok (snd s) ->
  sll_sender_addressC M s = LinuxSllHeaderA.sender_address s /\
  macsec_header_lenC M s = MacsecHeaderA.header_len s /\
  arp_sender_protocol_addrC M s = ArpPacketA.sender_protocol_addr s /\
  arp_target_hw_addrC M s = ArpPacketA.target_hw_addr s /\
  arp_target_protocol_addrC M s = ArpPacketA.target_protocol_addr s /\
  raw_from_slice_uncheckedC M s = Ipv6RawExtHeaderA.from_slice_unchecked s /\
  auth_from_slice_uncheckedC M s = Ipv6ExtIterA.auth_from_slice_unchecked s /\
  tcp_optionsC M s = TcpHeaderSliceA.options s.
Proof.
  intros M s HM Hok.
  split; [now apply sll_sender_addressC_eq|]. split; [now apply macsec_header_lenC_eq|].
  destruct (arpC_eq M HM s Hok) as (A1 & A2 & A3).
  split; [exact A1|]. split; [exact A2|]. split; [exact A3|].
  split; [now apply raw_from_slice_uncheckedC_eq|]. split; [now apply auth_from_slice_uncheckedC_eq|].
  now apply tcp_optionsC_eq.
Qed.

(* the largest values are reached, and an 8-bit usize would overflow *)
Example accessor_arith_ex :
  (match arp_target_protocol_addrC (2 ^ 32) (mk_slice ([0;1;8;0;255;255;0;1] ++ repeat 0 1020%nat)) with
   | Ok w => Some (win_of w) | _ => None end,
   match raw_from_slice_uncheckedC (2 ^ 32) (mk_slice ([17;255] ++ repeat 0 2046%nat)) with
   | Ok w => Some (win_of w) | _ => None end,
   match tcp_optionsC (2 ^ 32) (mk_slice (repeat 0 12%nat ++ [240] ++ repeat 0 47%nat)) with
   | Ok w => Some (win_of w) | _ => None end) =
  (Some (773, 255), Some (0, 2048), Some (20, 40)) /\
  arp_target_protocol_addrC (2 ^ 8) (mk_slice ([0;1;8;0;255;255;0;1] ++ repeat 0 1020%nat)) = Bug SITE_OVERFLOW /\
  raw_from_slice_uncheckedC (2 ^ 8) (mk_slice ([17;255] ++ repeat 0 2046%nat)) = Bug SITE_OVERFLOW.
Proof. vm_compute. repeat split. Qed.
