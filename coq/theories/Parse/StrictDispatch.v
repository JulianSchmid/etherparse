(* Parse/StrictDispatch.v -- the dispatch / content-rule description of accepted views
   (Parse/WireDispatch.v) transferred to the MODEL of strict slicing through the refinement
   theorems `from_*_rel` of StrictProofs.v, the way StrictFacts.v transfers `nested`:

   whenever SlicedPacket::from_X accepts, the reference decoder accepts with the same view
   and that view is `dispatch`ed (layer kinds follow the announced ether types / IP numbers,
   at most 3 link extensions, "no next layer" exactly for the documented causes, content
   rules hold), `desc`ribed and `nested`. *)
From EP Require Import Base.Bytes Parse.Types Parse.Cursor Parse.View
  Parse.WireSpec Parse.StrictProofs Parse.WireNested Parse.WireDesc
  Parse.WireDispatch Parse.WireAccepts.

Local Open Scope N_scope.

(* everything the three descriptions say *)
Definition described (bs : bytes) (e : entry) (v : vpacket) : Prop :=
  nested bs v /\ desc bs v /\ dispatch bs e v.

Definition strict_of (bs : bytes) (e : entry) : res sliced_packet :=
  match e with
  | EnEthernet => SlicedPacket.from_ethernet bs
  | EnLinuxSll => SlicedPacket.from_linux_sll bs
  | EnEtherType et => SlicedPacket.from_ether_type et bs
  | EnIp => SlicedPacket.from_ip bs
  end.

Lemma strict_of_rel bs e : bytes_ok bs -> res_rel (vres_of (strict_of bs e)) (wire_of bs e).
Proof.
  intros H. destruct e as [| |et|]; cbn [strict_of wire_of];
    [apply from_ethernet_rel|apply from_linux_sll_rel|apply from_ether_type_rel|apply from_ip_rel];
    exact H.
Qed.

Lemma strict_described bs e p : bytes_ok bs -> strict_of bs e = Ok p ->
  wire_of bs e = VOk (view p) /\ described bs e (view p).
Proof.
  intros Hok E. pose proof (res_rel_ok _ _ p (strict_of_rel bs e Hok) E) as W.
  split; [exact W|now apply wire_accepts_iff].
Qed.

Section Entry.
  Variables (bs : bytes) (et : N).
  Hypothesis Hok : bytes_ok bs.

  Theorem strict_dispatch_from_ethernet p : SlicedPacket.from_ethernet bs = Ok p ->
    wire_ethernet bs = VOk (view p) /\ described bs EnEthernet (view p).
  Proof. exact (strict_described bs EnEthernet p Hok). Qed.
  Theorem strict_dispatch_from_linux_sll p : SlicedPacket.from_linux_sll bs = Ok p ->
    wire_linux_sll bs = VOk (view p) /\ described bs EnLinuxSll (view p).
  Proof. exact (strict_described bs EnLinuxSll p Hok). Qed.
  Theorem strict_dispatch_from_ether_type p : SlicedPacket.from_ether_type et bs = Ok p ->
    wire_ether_type bs et = VOk (view p) /\ described bs (EnEtherType et) (view p).
  Proof. exact (strict_described bs (EnEtherType et) p Hok). Qed.
  Theorem strict_dispatch_from_ip p : SlicedPacket.from_ip bs = Ok p ->
    wire_from_ip bs = VOk (view p) /\ described bs EnIp (view p).
  Proof. exact (strict_described bs EnIp p Hok). Qed.
End Entry.

Theorem strict_accepts_iff bs e v : bytes_ok bs ->
  ((exists p, strict_of bs e = Ok p /\ view p = v) <-> described bs e v).
Proof.
  intros Hok. pose proof (strict_of_rel bs e Hok) as R. split.
  - intros (p & Hp & <-). exact (proj2 (strict_described bs e p Hok Hp)).
  - intros H. apply wire_accepts_iff in H. rewrite H in R.
    destruct (strict_of bs e) as [p|err|b]; cbn [vres_of] in R.
    + exists p. split; [reflexivity|exact R].
    + destruct err; contradiction.
    + contradiction.
Qed.

Theorem strict_rejects_iff bs e : bytes_ok bs ->
  ((exists err, strict_of bs e = Err err) <-> forall v, ~ described bs e v).
Proof.
  intros Hok. split.
  - intros (err & He) v Hv. apply (strict_accepts_iff bs e v Hok) in Hv.
    destruct Hv as (p & Hp & _). congruence.
  - intros H. destruct (strict_of bs e) as [p|err|b] eqn:E.
    + exfalso. apply (H (view p)). apply (strict_accepts_iff bs e (view p) Hok). now exists p.
    + now exists err.
    + exfalso. apply (res_rel_no_bug _ _ (strict_of_rel bs e Hok) b). now rewrite E.
Qed.
