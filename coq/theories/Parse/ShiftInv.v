(* Parse/ShiftInv.v -- "the observable result depends only on the bytes of the slice, not
   on where it is located": in the pointer model of Parse/Types.v a `&[u8]` is (offset of its
   first byte, contents); the entry points of Parse/Cursor.v are applied to `mk_slice bs`
   = (0, bs).  Here the same transliterations are run on a slice that starts ANYWHERE,
   `sh k s` = the slice s moved by k bytes (`(k, bs)` for a standalone input), and the
   answer is proved to be the answer for s with every pointer moved by k:
     - Ok values: every stored slice moved by k (same contents, same lengths, same
       decoded numbers, same length sources);
     - Err values: EQUAL (required_len, len, len_source, layer, layer_start_offset --
       the offsets of errors are relative to the start of the input slice);
     - Bug values: equal (and excluded by C01/C02).
   As a corollary, decoding a window [pos, lim) of a larger buffer gives the answer of
   decoding a standalone copy of these bytes, moved by pos: nothing outside the window
   influences the result.
   The single-layer lemmas are those of Equiv/ShiftProofs.v; for the cursor the statements here are
   EQUALITIES with the cursor offset left alone (Equiv/ShiftProofs.v moves pointer and
   cursor offset together, which is what C06 needs). *)
From EP Require Import Base.Bytes Parse.Types Parse.Slices Parse.Cursor Parse.Repr Parse.Access
  Equiv.Model Equiv.ShiftProofs Equiv.LaxShift.
From Coq Require Import ZArith Lia ZifyN ZifyBool.
Import SlicedPacketCursor.

Local Open Scope N_scope.

(* ---- the entry points on an arbitrary slice ------------------------------------------------------ *)
(* the bodies of SlicedPacket::{from_ethernet, from_linux_sll, from_ether_type, from_ip} with
   the input slice as a parameter *)
Definition from_ethernet_at (s : slice) : res sliced_packet := slice_ethernet2 new s.
Definition from_linux_sll_at (s : slice) : res sliced_packet := slice_linux_sll new s.
Definition from_ether_type_at (et : N) (s : slice) : res sliced_packet :=
  let ep := mkEtherPayload et LsSlice s in
  slice_ether_type (set_link new 0 (LkEtherPayload ep)) ep.
Definition from_ip_at (s : slice) : res sliced_packet := slice_ip new s.

Lemma at_mk_slice bs et :
  from_ethernet_at (mk_slice bs) = SlicedPacket.from_ethernet bs /\
  from_linux_sll_at (mk_slice bs) = SlicedPacket.from_linux_sll bs /\
  from_ether_type_at et (mk_slice bs) = SlicedPacket.from_ether_type et bs /\
  from_ip_at (mk_slice bs) = SlicedPacket.from_ip bs.
Proof. repeat split. Qed.

(* ---- moving a whole result --------------------------------------------------------------------------- *)
Definition sh_link k (l : link_slice) : link_slice :=
  match l with
  | LkEthernet2 s => LkEthernet2 (sh k s)
  | LkLinuxSll h w => LkLinuxSll (sh k h) (sh k w)
  | LkEtherPayload e => LkEtherPayload (sh_ep k e)
  end.
Definition sh_pkt k (p : sliced_packet) : sliced_packet :=
  mkSliced (option_map (sh_link k) (sp_link p)) (map (sh_lext k) (sp_exts p))
           (option_map (sh_net k) (sp_net p)) (option_map (sh_tr k) (sp_transport p)).
Definition sh_cur k (c : cursor) : cursor := mkCursor (c_offset c) (c_src c) (sh_pkt k (c_result c)).
Definition sh_ip k (i : ip_slice) : ip_slice :=
  match i with IpV4 v => IpV4 (sh_v4 k v) | IpV6 v => IpV6 (sh_v6 k v) end.
Definition sh_pair k (x : slice * slice) : slice * slice := (sh k (fst x), sh k (snd x)).
Definition sh_eth2 k (e : eth2_slice) : eth2_slice := mkEth2 (e2_fcs_len e) (sh k (e2_slice e)).

(* ---- single-layer slicers that Equiv/ShiftProofs.v does not need *)
Lemma eth2_from_slice_sh k s :
  Ethernet2Slice.from_slice_without_fcs (sh k s) = rmap (sh k) (Ethernet2Slice.from_slice_without_fcs s).
Proof. unfold Ethernet2Slice.from_slice_without_fcs. steps. Qed.
#[export] Hint Resolve eth2_from_slice_sh : sh.

Lemma eth2_payload_sh k s :
  Ethernet2Slice.payload (sh k s) = rmap (sh_ep k) (Ethernet2Slice.payload s).
Proof.
  unfold Ethernet2Slice.payload, Ethernet2Slice.ether_type, Ethernet2Slice.payload_slice. steps.
Qed.

Lemma eth2a_from_slice_sh k s :
  Ethernet2A.from_slice_without_fcs (sh k s) = rmap (sh_eth2 k) (Ethernet2A.from_slice_without_fcs s).
Proof. unfold Ethernet2A.from_slice_without_fcs. steps. Qed.

Lemma eth2a_fcs_from_slice_sh k s :
  Ethernet2A.from_slice_with_crc32_fcs (sh k s) = rmap (sh_eth2 k) (Ethernet2A.from_slice_with_crc32_fcs s).
Proof. unfold Ethernet2A.from_slice_with_crc32_fcs. cbv zeta. steps. Qed.

Lemma sllh_from_slice_sh k s :
  LinuxSll.header_from_slice (sh k s) = rmap (sh k) (LinuxSll.header_from_slice s).
Proof. unfold LinuxSll.header_from_slice. steps. Qed.
#[export] Hint Resolve sllh_from_slice_sh : sh.

Lemma sll_from_slice_sh k s :
  LinuxSll.from_slice (sh k s) = rmap (sh_pair k) (LinuxSll.from_slice s).
Proof.
  unfold LinuxSll.from_slice.
  change (fst (sh k s), take 16 (snd (sh k s))) with (sh k (fst s, take 16 (snd s))). steps.
Qed.

Lemma sll_payload_slice_sh k s :
  LinuxSll.payload_slice (sh k s) = rmap (sh k) (LinuxSll.payload_slice s).
Proof. unfold LinuxSll.payload_slice. steps. Qed.

Lemma ip_from_slice_sh k s : IpSlice.from_slice (sh k s) = rmap (sh_ip k) (IpSlice.from_slice s).
Proof. unfold IpSlice.from_slice. cbv zeta. steps. Qed.

Lemma udph_from_slice_sh k s :
  UdpSlice.header_from_slice (sh k s) = rmap (sh k) (UdpSlice.header_from_slice s).
Proof. unfold UdpSlice.header_from_slice. steps. Qed.

Lemma tcph_from_slice_sh k s :
  TcpHeaderSliceA.from_slice (sh k s) = rmap (sh k) (TcpHeaderSliceA.from_slice s).
Proof. unfold TcpHeaderSliceA.from_slice. steps. Qed.

(* ---- the cursor: pointers move, the cursor offset does not ----------------------------------------- *)
Lemma tr_fix_cur k c : tr_fix (sh_cur k c) = tr_fix c.
Proof. reflexivity. Qed.

(* the cursor lemmas of Equiv/ShiftProofs.v with the cursor offset left alone and the link layer moved *)
Lemma sh_cur_mv k c : sh_cur k c = mv_cur 0 k (option_map (sh_link k)) c.
Proof. unfold sh_cur, mv_cur. now rewrite N.add_0_r. Qed.

Lemma mv_res_0 k (r : res sliced_packet) :
  mv_res 0 k (option_map (sh_link k)) r = rmap (sh_pkt k) r.
Proof.
  destruct r as [p|[l|c]|b]; cbn; try reflexivity.
  destruct l. unfold le_add_offset. cbn. now rewrite N.add_0_r.
Qed.

Lemma slice_ip_eq k c s : slice_ip (sh_cur k c) (sh k s) = rmap (sh_pkt k) (slice_ip c s).
Proof.
  rewrite sh_cur_mv, <- mv_res_0. unfold slice_ip. rewrite ip_from_slice_sh. cbn [mv_cur c_offset].
  rewrite stage_mv. eapply bind_mv; [reflexivity|]. intros [v|v].
  - exact (ip_tail_mv 0 k _ c s (v4_payload v) (NtIpv4 v)).
  - exact (ip_tail_mv 0 k _ c s (v6_payload v) (NtIpv6 v)).
Qed.

Lemma loop_eq k fuel c ep :
  slice_ether_type_loop fuel (sh_cur k c) (sh_ep k ep) = rmap (sh_pkt k) (slice_ether_type_loop fuel c ep).
Proof. rewrite sh_cur_mv, loop_mv. apply mv_res_0. Qed.

Lemma slice_ethernet2_eq k c s :
  slice_ethernet2 (sh_cur k c) (sh k s) = rmap (sh_pkt k) (slice_ethernet2 c s).
Proof.
  unfold slice_ethernet2. rewrite eth2_from_slice_sh.
  destruct (Ethernet2Slice.from_slice_without_fcs s) as [r|[l|e]|b]; cbn [rmap map_len_err bind]; try reflexivity.
  rewrite eth2_payload_sh.
  destruct (Ethernet2Slice.payload r) as [ep|[?|?]|?]; cbn [rmap bind]; try reflexivity.
  exact (loop_eq k 5 (set_link c (c_offset c + Ethernet2Slice.header_len) (LkEthernet2 r)) ep).
Qed.

Lemma slice_linux_sll_eq k c s :
  slice_linux_sll (sh_cur k c) (sh k s) = rmap (sh_pkt k) (slice_linux_sll c s).
Proof.
  unfold slice_linux_sll. rewrite sll_from_slice_sh.
  destruct (LinuxSll.from_slice s) as [[h w]|[l|e]|b]; cbn [rmap map_len_err bind sh_pair fst snd]; try reflexivity.
  change (LinuxSll.protocol_type (sh k h)) with (LinuxSll.protocol_type h).
  destruct (LinuxSll.protocol_type h) as [pt|[?|?]|?]; cbn [rmap bind]; try reflexivity.
  rewrite sll_payload_slice_sh.
  destruct (LinuxSll.payload_slice w) as [pl|[?|?]|?]; cbn [rmap bind]; try reflexivity.
  destruct pt; try reflexivity.
  exact (loop_eq k 5 (set_link c (c_offset c + 16) (LkLinuxSll h w)) (mkEtherPayload v LsSlice pl)).
Qed.

(* ---- the theorems ------------------------------------------------------------------------------------- *)
Theorem strict_entry_shift_invariant k s et :
  from_ethernet_at (sh k s) = rmap (sh_pkt k) (from_ethernet_at s) /\
  from_linux_sll_at (sh k s) = rmap (sh_pkt k) (from_linux_sll_at s) /\
  from_ether_type_at et (sh k s) = rmap (sh_pkt k) (from_ether_type_at et s) /\
  from_ip_at (sh k s) = rmap (sh_pkt k) (from_ip_at s).
Proof.
  split; [exact (slice_ethernet2_eq k new s)|]. split; [exact (slice_linux_sll_eq k new s)|].
  split; [|exact (slice_ip_eq k new s)].
  exact (loop_eq k 5 (set_link new 0 (LkEtherPayload (mkEtherPayload et LsSlice s)))
           (mkEtherPayload et LsSlice s)).
Qed.

(* a standalone input located k bytes into its allocation *)
Theorem strict_entry_located k bs et :
  from_ethernet_at (k, bs) = rmap (sh_pkt k) (SlicedPacket.from_ethernet bs) /\
  from_linux_sll_at (k, bs) = rmap (sh_pkt k) (SlicedPacket.from_linux_sll bs) /\
  from_ether_type_at et (k, bs) = rmap (sh_pkt k) (SlicedPacket.from_ether_type et bs) /\
  from_ip_at (k, bs) = rmap (sh_pkt k) (SlicedPacket.from_ip bs).
Proof. exact (strict_entry_shift_invariant k (mk_slice bs) et). Qed.

(* a window of a larger buffer: nothing outside [pos, lim) influences the answer *)
Theorem strict_entry_window bs s pos lim et :
  repr bs s pos lim ->
  let w := take (lim - pos) (drop pos bs) in
  from_ethernet_at s = rmap (sh_pkt pos) (SlicedPacket.from_ethernet w) /\
  from_linux_sll_at s = rmap (sh_pkt pos) (SlicedPacket.from_linux_sll w) /\
  from_ether_type_at et s = rmap (sh_pkt pos) (SlicedPacket.from_ether_type et w) /\
  from_ip_at s = rmap (sh_pkt pos) (SlicedPacket.from_ip w).
Proof. intros (-> & _). cbv zeta. apply strict_entry_located. Qed.

(* two buffers that agree on the window give the same answer (pointers included) *)
Corollary strict_entry_same_window bs1 bs2 s1 s2 pos lim et :
  repr bs1 s1 pos lim -> repr bs2 s2 pos lim ->
  take (lim - pos) (drop pos bs1) = take (lim - pos) (drop pos bs2) ->
  from_ethernet_at s1 = from_ethernet_at s2 /\ from_linux_sll_at s1 = from_linux_sll_at s2 /\
  from_ether_type_at et s1 = from_ether_type_at et s2 /\ from_ip_at s1 = from_ip_at s2.
Proof. intros (-> & _) (-> & _) ->. repeat split. Qed.

(* the single layers *)
Theorem single_layer_shift_invariant k s :
  Ethernet2A.from_slice_without_fcs (sh k s) = rmap (sh_eth2 k) (Ethernet2A.from_slice_without_fcs s) /\
  Ethernet2A.from_slice_with_crc32_fcs (sh k s) = rmap (sh_eth2 k) (Ethernet2A.from_slice_with_crc32_fcs s) /\
  LinuxSll.header_from_slice (sh k s) = rmap (sh k) (LinuxSll.header_from_slice s) /\
  LinuxSll.from_slice (sh k s) = rmap (sh_pair k) (LinuxSll.from_slice s) /\
  SingleVlanSlice.from_slice (sh k s) = rmap (sh k) (SingleVlanSlice.from_slice s) /\
  Macsec.header_from_slice (sh k s) = rmap (sh k) (Macsec.header_from_slice s) /\
  Macsec.from_slice (sh k s) = rmap (sh_ms k) (Macsec.from_slice s) /\
  ArpPacketSlice.from_slice (sh k s) = rmap (sh k) (ArpPacketSlice.from_slice s) /\
  Ipv4HeaderSlice.from_slice (sh k s) = rmap (sh k) (Ipv4HeaderSlice.from_slice s) /\
  Ipv4Slice.from_slice (sh k s) = rmap (sh_v4 k) (Ipv4Slice.from_slice s) /\
  Ipv6HeaderSlice.from_slice (sh k s) = rmap (sh k) (Ipv6HeaderSlice.from_slice s) /\
  Ipv6Slice.from_slice (sh k s) = rmap (sh_v6 k) (Ipv6Slice.from_slice s) /\
  IpSlice.from_slice (sh k s) = rmap (sh_ip k) (IpSlice.from_slice s) /\
  IpAuthHeaderSlice.from_slice (sh k s) = rmap (sh k) (IpAuthHeaderSlice.from_slice s) /\
  Ipv6RawExtHeaderSlice.from_slice (sh k s) = rmap (sh k) (Ipv6RawExtHeaderSlice.from_slice s) /\
  Ipv6FragmentHeaderSlice.from_slice (sh k s) = rmap (sh k) (Ipv6FragmentHeaderSlice.from_slice s) /\
  (forall nh, Ipv6ExtensionsSlice.from_slice nh (sh k s) = rmap (sh_x6r k) (Ipv6ExtensionsSlice.from_slice nh s)) /\
  UdpSlice.header_from_slice (sh k s) = rmap (sh k) (UdpSlice.header_from_slice s) /\
  UdpSlice.from_slice (sh k s) = rmap (sh k) (UdpSlice.from_slice s) /\
  UdpSlice.from_slice_lax (sh k s) = rmap (sh k) (UdpSlice.from_slice_lax s) /\
  TcpHeaderSliceA.from_slice (sh k s) = rmap (sh k) (TcpHeaderSliceA.from_slice s) /\
  TcpSlice.from_slice (sh k s) = rmap (sh_tcp k) (TcpSlice.from_slice s) /\
  Icmpv4Slice.from_slice (sh k s) = rmap (sh k) (Icmpv4Slice.from_slice s) /\
  Icmpv6Slice.from_slice (sh k s) = rmap (sh k) (Icmpv6Slice.from_slice s).
Proof.
  repeat match goal with |- _ /\ _ => split end;
    first [ apply eth2a_from_slice_sh | apply eth2a_fcs_from_slice_sh | apply sllh_from_slice_sh
          | apply sll_from_slice_sh | apply vlan_from_slice_sh | apply macsec_header_sh
          | apply macsec_from_slice_sh | apply arp_from_slice_sh | apply v4h_from_slice_sh
          | apply v4_from_slice_sh | apply v6h_from_slice_sh | apply v6_from_slice_sh
          | apply ip_from_slice_sh | apply auth_from_slice_sh | apply raw_from_slice_sh
          | apply frag_from_slice_sh | (intros nh; apply x6_from_slice_sh) | apply udph_from_slice_sh
          | apply udp_from_slice_sh | apply udp_from_slice_lax_sh | apply tcph_from_slice_sh
          | apply tcp_from_slice_sh | apply icmp4_from_slice_sh | apply icmp6_from_slice_sh ].
Qed.
