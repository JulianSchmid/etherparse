(* Parse/Fields2Proofs.v -- C03 derived / typed accessor values: the accessor models of
   Parse/Access.v on the slices of a strict result return the values Parse/Fields2.v defines
   from the RFC / IEEE fields at the layer's absolute position
   (fields2_of_packet p = Ok (spec_fields2 bs (view p))). *)
From Coq Require Import ZArith Lia ZifyN ZifyBool.
From EP Require BitFields.Spec BitFields.Model BitFields.BitLemmas BitFields.Proofs2.
From EP Require Import Base.Bytes Base.Lists Parse.Types Parse.Slices Parse.Cursor Parse.View Parse.WireSpec
  Parse.Repr Parse.Access Parse.AccessProofs Parse.Fields Parse.FieldsProofs
  Parse.WireNested Parse.WireDesc Parse.StrictFacts Parse.Fields2.

Local Open Scope N_scope.

Local Notation bfield := BitFields.Spec.field.
Local Notation bits_of := BitFields.Spec.bits_of.

Lemma repr_subU_win bs s pos lim k n :
  repr bs s pos lim -> k + n <= lim - pos ->
  exists w, subU s k n = Ok w /\ win_of w = (pos + k, n).
Proof.
  intros R H. destruct (repr_subU bs s pos lim k n R H) as (w & E & Rw).
  exists w. split; [exact E|]. rewrite (repr_win _ _ _ _ Rw). f_equal. lia.
Qed.

Definition byte_chk2 (b : N) : bool :=
  Bool.eqb ((b / 32) mod 2 =? 0) (N.land b 32 =? 0) &&
  Bool.eqb (b mod 2 =? 0) (N.land b 1 =? 0) &&
  (N.land b 31 =? b mod 32) &&
  (N.land b 15 =? b mod 16) &&
  (N.shiftr b 4 =? b / 16).

Lemma byte_chk2_all : forallb byte_chk2 (BitFields.BitLemmas.range 256) = true.
Proof. vm_compute. reflexivity. Qed.

Lemma byte_facts2 b : b < 256 ->
  ((b / 32) mod 2 =? 0) = (N.land b 32 =? 0) /\
  (b mod 2 =? 0) = (N.land b 1 =? 0) /\
  N.land b 31 = b mod 32 /\
  N.land b 15 = b mod 16 /\
  N.shiftr b 4 = b / 16.
Proof.
  intros H. pose proof (BitFields.BitLemmas.sweep 256 byte_chk2 byte_chk2_all b H) as C.
  unfold byte_chk2 in C.
  repeat match type of C with (_ && _) = true => apply andb_prop in C; destruct C as [C ?] end.
  repeat match goal with
         | X : (_ =? _) = true |- _ => apply N.eqb_eq in X
         | X : Bool.eqb _ _ = true |- _ => apply Bool.eqb_prop in X
         end.
  repeat split; assumption.
Qed.

Section Link2.
  Variable bs : bytes.
  Hypothesis Hok : bytes_ok bs.

  (* the two readings of "this IPv4 header fragments its payload" *)
  Lemma ipv4_fragmented_bits p : ipv4_fragmented bs p = ipv4_frag_spec bs p.
  Proof.
    unfold ipv4_fragmented, ipv4_frag_spec, flag, bits, W. cbn [bytes_at].
    set (a := B bs (p + 6)). set (b := B bs (p + 6 + 1)).
    assert (Ha : a < 256) by apply (B_lt _ _ Hok). assert (Hb : b < 256) by apply (B_lt _ _ Hok).
    destruct (BitFields.Proofs2.raw_fields_ipv4_67 a b Ha Hb) as (_ & E6 & E7).
    destruct (byte_facts2 a Ha) as (F1 & _ & F3 & _).
    rewrite <- E7, (flag_of_b2n _ _ E6). unfold BitFields.Model.nonzero. rewrite F1, F3.
    f_equal. f_equal. unfold be16.
    assert (X : (a * 256 + b) mod 8192 = a mod 32 * 256 + b) by dmlia. now rewrite X.
  Qed.

  (* the two readings of "this fragment header fragments the payload" *)
  Lemma frag_fragments_bits pos : frag_hdr_fragments bs pos = frag_fragments_spec bs pos.
  Proof.
    unfold frag_hdr_fragments, frag_fragments_spec, flag, bits, W. cbn [bytes_at].
    replace (pos + 3) with (pos + 2 + 1) by lia.
    set (a := B bs (pos + 2)). set (b := B bs (pos + 2 + 1)).
    assert (Ha : a < 256) by apply (B_lt _ _ Hok). assert (Hb : b < 256) by apply (B_lt _ _ Hok).
    destruct (BitFields.Proofs2.raw_fields_frag a b Ha Hb) as (E1 & E2).
    destruct (byte_facts2 b Hb) as (_ & F2 & _).
    rewrite <- E1, (flag_of_b2n _ _ E2). unfold BitFields.Model.nonzero. rewrite F2.
    rewrite N.shiftr_div_pow2. unfold be16. reflexivity.
  Qed.

  Lemma chain_end_bits : forall fuel nh pos lim fr,
    chain_end bs fuel nh pos lim fr = chain_end_b bs fuel nh pos lim fr.
  Proof.
    induction fuel as [|f IH]; intros nh pos lim fr; [reflexivity|].
    cbn [chain_end chain_end_b]. rewrite frag_fragments_bits, !IH. reflexivity.
  Qed.

  Lemma eth_fields2_ok s : in_buf bs s -> 14 <= s_len s -> eth_fields2 s = Ok (eth_spec2 (win_of s)).
  Proof.
    intros I L. pose proof (in_buf_repr _ _ I) as R.
    unfold eth_fields2, Ethernet2A.fcs, Ethernet2A.header_slice, Ethernet2A.payload_slice.
    cbn [e2_fcs_len e2_slice]. change (0 =? 4) with false. cbv iota. cbn [bind].
    rewrite (subN_ok (s_len s) 14) by lia. cbn [bind]. rewrite subN_ok by lia. cbn [bind].
    destruct (repr_subU_win bs s _ _ 0 14 R) as (w1 & E1 & W1); [lia|].
    destruct (repr_subU_win bs s _ _ 14 (s_len s - 14 - 0) R) as (w2 & E2 & W2); [lia|].
    rewrite E1. cbn [bind]. rewrite E2. cbn [bind]. rewrite W1, W2.
    unfold eth_spec2, win_of. cbn [fst snd]. rewrite N.add_0_r, N.sub_0_r. reflexivity.
  Qed.

  Lemma sll_fields2_ok h w :
    in_buf bs h -> in_buf bs w -> s_len h = 16 -> 16 <= s_len w ->
    sll_fields2 h w = Ok (sll_spec2 bs (win_of h) (win_of w)).
  Proof.
    intros Ih Iw Lh Lw. pose proof (in_buf_repr _ _ Ih) as Rh. pose proof (in_buf_repr _ _ Iw) as Rw.
    unfold sll_fields2, LinuxSllHeaderA.sender_address, LinuxSllHeaderA.sender_address_valid_length,
      LinuxSllA.payload_slice. cbn [fst snd].
    rewrite (repr_rd16 _ _ _ _ 4 Rh) by lia. cbn [bind].
    set (l := W bs (s_off h + 4)).
    rewrite idx_range_subU by lia.
    destruct (repr_subU_win bs h _ _ 6 (N.min (6 + l) (6 + 8) - 6) Rh) as (w1 & E1 & W1); [lia|].
    rewrite E1. cbn [bind]. rewrite subN_ok by lia. cbn [bind].
    destruct (repr_subU_win bs w _ _ 16 (s_len w - 16) Rw) as (w2 & E2 & W2); [lia|].
    rewrite E2. cbn [bind]. rewrite W1, W2. unfold sll_spec2, win_of. cbn [fst snd]. fold l.
    replace (N.min (6 + l) (6 + 8) - 6) with (N.min l 8) by lia. reflexivity.
  Qed.

  Lemma vlan_fields2_ok s : in_buf bs s -> 4 <= s_len s -> vlan_fields2 s = Ok (vlan_spec2 (win_of s)).
  Proof.
    intros I L. pose proof (in_buf_repr _ _ I) as R.
    unfold vlan_fields2, SingleVlanA.header_slice, SingleVlanA.payload_slice.
    rewrite subN_ok by lia. cbn [bind].
    destruct (repr_subU_win bs s _ _ 0 4 R) as (w1 & E1 & W1); [lia|].
    destruct (repr_subU_win bs s _ _ 4 (s_len s - 4) R) as (w2 & E2 & W2); [lia|].
    rewrite E1. cbn [bind]. rewrite E2. cbn [bind]. rewrite W1, W2.
    unfold vlan_spec2, win_of. cbn [fst snd]. rewrite N.add_0_r. reflexivity.
  Qed.

  Lemma macsec_fields2_ok h :
    in_buf bs h -> wf_macsech h -> macsec_fields2 h = Ok (macsec_spec2 bs (s_off h)).
  Proof.
    intros I (t & Et & L). pose proof (in_buf_repr _ _ I) as R.
    assert (L6 : 6 <= s_len h) by lia.
    assert (Et' : t = B bs (s_off h)).
    { rewrite (repr_rdU _ _ _ _ 0 R) in Et by lia. rewrite N.add_0_r in Et. now injection Et as <-. }
    subst t. set (p := s_off h) in *. set (t := B bs p) in *.
    assert (Ht : t < 256) by apply (B_lt _ _ Hok).
    destruct (byte_facts t Ht) as (_ & _ & _ & _ & _ & F2 & _ & F4 & F5 & _).
    destruct (byte_facts (B bs (p + 1)) (B_lt _ _ Hok)) as (_ & _ & _ & _ & _ & _ & _ & _ & _ & _ & _ & _ & G).
    unfold macsec_spec2, flag, bits. cbn [bytes_at]. fold t. rewrite <- F2, <- F4, <- F5, <- G.
    set (sl := N.land (B bs (p + 1)) 63).
    unfold macsec_fields2, MacsecHeaderA.is_unmodified, MacsecHeaderA.ptype, MacsecHeaderA.next_ether_type,
      MacsecHeaderA.header_len, MacsecHeaderA.expected_payload_len, MacsecHeaderA.is_unmodified,
      MacsecHeaderA.encrypted, MacsecHeaderA.userdata_changed, MacsecHeaderA.sci_present,
      MacsecHeaderA.short_len, MacsecHeaderA.tci_an_raw.
    rewrite !(repr_rdU _ _ _ _ 0 R) by lia. cbn [bind]. rewrite !N.add_0_r. fold p. fold t.
    rewrite !(repr_rdU _ _ _ _ 1 R) by lia. cbn [bind]. fold p. fold sl.
    (* expected_payload_len in the shape of the specification *)
    assert (EPLm : (if 0 <? sl then Ok (Some sl) else Ok None : res (option N)) =
                   Ok (if sl =? 0 then None else Some sl)).
    { destruct (0 <? sl) eqn:C0; destruct (sl =? 0) eqn:C1; try lia; reflexivity. }
    assert (EPLu : (if 0 <? sl
                    then if sl <? 2 then Ok None else let* d := subN sl 2 in Ok (Some d)
                    else Ok None) =
                   Ok (if sl =? 0 then None else if sl <? 2 then None else Some (sl - 2))).
    { destruct (0 <? sl) eqn:C0; destruct (sl =? 0) eqn:C1; try lia; [|reflexivity].
      destruct (sl <? 2) eqn:C2; [reflexivity|]. rewrite subN_ok by lia. reflexivity. }
    destruct (bitset t 8) eqn:E8; destruct (bitset t 4) eqn:E4; cbn [negb andb bind].
    - rewrite (land_8_12 t E8) in *. cbn [negb bind]. rewrite EPLm. cbn [bind ptype_code ptype_et].
      destruct (bitset t 32); reflexivity.
    - rewrite (land_8_12 t E8) in *. cbn [negb bind]. rewrite EPLm. cbn [bind ptype_code ptype_et].
      destruct (bitset t 32); reflexivity.
    - rewrite (land_4_12 t E4) in *. cbn [negb bind]. rewrite EPLm. cbn [bind ptype_code ptype_et].
      destruct (bitset t 32); reflexivity.
    - rewrite (land_none_12 t E8 E4) in *. cbn [negb bind].
      destruct (bitset t 32) eqn:E32; cbn [bind].
      + rewrite !(repr_rdU _ _ _ _ 14 R), !(repr_rdU _ _ _ _ 15 R) by lia. cbn [bind]. fold p.
        rewrite EPLu. cbn [bind ptype_code ptype_et]. unfold W, be16.
        replace (p + 6 + 8) with (p + 14) by lia. replace (p + 14 + 1) with (p + 15) by lia. reflexivity.
      + rewrite !(repr_rdU _ _ _ _ 6 R), !(repr_rdU _ _ _ _ 7 R) by lia. cbn [bind]. fold p.
        rewrite EPLu. cbn [bind ptype_code ptype_et]. unfold W, be16.
        rewrite !N.add_0_r. replace (p + 6 + 1) with (p + 7) by lia. reflexivity.
  Qed.

  Lemma arp_fields2_ok a : in_buf bs a -> wf_arp a -> arp_fields2 a = Ok (arp_spec2 bs (s_off a)).
  Proof.
    intros I (hw & pr & Eh & Ep & L). pose proof (in_buf_repr _ _ I) as R.
    assert (Eh' : hw = B bs (s_off a + 4)).
    { rewrite (repr_rdU _ _ _ _ 4 R) in Eh by lia. now injection Eh as <-. }
    assert (Ep' : pr = B bs (s_off a + 5)).
    { rewrite (repr_rdU _ _ _ _ 5 R) in Ep by lia. now injection Ep as <-. }
    set (p := s_off a) in *.
    unfold arp_fields2, ArpPacketA.sender_hw_addr, ArpPacketA.sender_protocol_addr, ArpPacketA.target_hw_addr,
      ArpPacketA.target_protocol_addr, ArpPacketA.hw_addr_size, ArpPacketA.proto_addr_size.
    rewrite !(repr_rdU _ _ _ _ 4 R), !(repr_rdU _ _ _ _ 5 R) by lia. cbn [bind]. fold p.
    rewrite <- Eh', <- Ep'.
    destruct (repr_subU_win bs a _ _ 8 hw R) as (w1 & E1 & S1); [lia|].
    destruct (repr_subU_win bs a _ _ (8 + hw) pr R) as (w2 & E2 & S2); [lia|].
    destruct (repr_subU_win bs a _ _ (8 + hw + pr) hw R) as (w3 & E3 & S3); [lia|].
    destruct (repr_subU_win bs a _ _ (8 + hw * 2 + pr) pr R) as (w4 & E4 & S4); [lia|].
    rewrite E1, E2, E3, E4. cbn [bind]. fold p in S1, S2, S3, S4. rewrite S1, S2, S3, S4.
    unfold arp_spec2. rewrite <- Eh', <- Ep'.
    replace (p + (8 + hw)) with (p + 8 + hw) by lia.
    replace (p + (8 + hw + pr)) with (p + 8 + hw + pr) by lia.
    replace (p + (8 + hw * 2 + pr)) with (p + 8 + hw + pr + hw) by lia.
    reflexivity.
  Qed.

  Lemma ipv4_fields2_ok v cur :
    in_buf bs (v4_header v) -> wf_ipv4h (v4_header v) ->
    net_ok bs cur (view_net (NtIpv4 v)) -> net_desc bs (view_net (NtIpv4 v)) ->
    ipv4_fields2 v = Ok (ipv4_spec2 bs (win_of (v4_header v)) (option_map win_of (v4_auth v))).
  Proof.
    intros I (L1 & L2) N D. pose proof (in_buf_repr _ _ I) as R.
    cbn [view_net net_ok net_desc] in N, D. cbv zeta in N.
    set (h := v4_header v) in *. set (p := s_off h) in *.
    unfold win_of in N, D. cbn [fst snd] in N, D. fold p in N, D.
    destruct N as (_ & Nhl & _ & _ & Na & Nend & Nsrc). destruct D as (Dn & Df).
    unfold view_ipp in *. cbn [vip_win vip_src vip_number vip_frag] in *.
    unfold win_of in Na, Nend. unfold wend in Na, Nend. cbn [fst snd] in Na, Nend.
    set (pl := v4_payload v) in *.
    assert (Ltl : s_len h <= W bs (p + 2)).
    { destruct (v4_auth v) as [a|]; cbn [option_map] in Na.
      - destruct Na as (A1 & A2 & A3). unfold win_of in *. cbn [fst snd] in *. lia.
      - lia. }
    destruct (byte_facts (B bs p) (B_lt _ _ Hok)) as (_ & E2 & _).
    destruct (byte_facts2 (B bs p) (B_lt _ _ Hok)) as (_ & _ & _ & F4 & _).
    unfold ipv4_fields2, Ipv4HeaderA.payload_len, Ipv4HeaderA.total_len, Ipv4HeaderA.is_fragmenting_payload,
      Ipv4HeaderA.more_fragments, Ipv4HeaderA.fragments_offset. fold h.
    rewrite (repr_rd16 _ _ _ _ 2 R) by lia. cbn [bind]. fold p.
    rewrite (N.mod_small (s_len h) 65536) by lia.
    destruct (s_len h <=? W bs (p + 2)) eqn:C; [|lia]. rewrite subN_ok by lia. cbn [bind].
    rewrite !(repr_rdU _ _ _ _ 6 R), (repr_rdU _ _ _ _ 7 R) by lia. cbn [bind]. fold p.
    unfold ipv4_spec2, ipp_fields2, win_of. cbn [fst snd app]. fold h. fold p. fold pl.
    rewrite <- ipv4_fragmented_bits, <- Df.
    (* is_fragmenting_payload of the header = the stored flag's definition *)
    assert (FR : bitset (B bs (p + 6)) 32 || negb (be16 (N.land (B bs (p + 6)) 31) (B bs (p + 7)) =? 0)
                 = ipp_fragmented pl).
    { rewrite Df, ipv4_fragmented_bits. unfold ipv4_frag_spec, flag, bits. cbn [bytes_at].
      replace (p + 7) with (p + 6 + 1) by lia.
      destruct (BitFields.Proofs2.raw_fields_ipv4_67 (B bs (p + 6)) (B bs (p + 6 + 1))
                  (B_lt _ _ Hok) (B_lt _ _ Hok)) as (_ & E6 & E7).
      rewrite <- E7, (flag_of_b2n _ _ E6). reflexivity. }
    rewrite FR.
    unfold bits. cbn [bytes_at]. rewrite <- E2, F4, <- Nhl, Dn, Nsrc.
    assert (WIN : (s_off (ipp_slice pl), s_len (ipp_slice pl)) =
                  (match option_map win_of (v4_auth v) with
                   | Some w => fst w + snd w
                   | None => p + s_len h
                   end,
                   p + W bs (p + 2) -
                   match option_map win_of (v4_auth v) with
                   | Some w => fst w + snd w
                   | None => p + s_len h
                   end)).
    { destruct (v4_auth v) as [a|]; cbn [option_map] in *.
      - destruct Na as (A1 & A2 & A3). unfold win_of in *. cbn [fst snd] in *. f_equal; lia.
      - f_equal; lia. }
    unfold win_of in WIN. cbn [fst snd] in WIN. rewrite WIN.
    destruct (v4_auth v) as [a|]; reflexivity.
  Qed.

  Lemma ipv6_fields2_ok v cur :
    in_buf bs (v6_header v) -> wf_ipv6h (v6_header v) ->
    net_ok bs cur (view_net (NtIpv6 v)) -> net_desc bs (view_net (NtIpv6 v)) ->
    ipv6_fields2 v =
      Ok (ipv6_spec2 bs (win_of (v6_header v)) (win_of (x6_slice (v6_exts v))) (wend cur)).
  Proof.
    intros I L N D. unfold wf_ipv6h in L. pose proof (in_buf_repr _ _ I) as R.
    cbn [view_net net_ok net_desc] in N, D. cbv zeta in N, D.
    set (h := v6_header v) in *. set (p := s_off h) in *.
    set (x := x6_slice (v6_exts v)) in *. set (pl := v6_payload v) in *.
    unfold view_ipp in *. cbn [vip_win vip_src vip_number vip_frag] in *.
    unfold win_of, wend in N, D. cbn [fst snd] in N, D. fold p in N, D.
    destruct N as (_ & _ & Nx & Np & Nle & Nz & Nnz). destruct D as (Dc & _ & Ds).
    unfold ipv6_fields2, Ipv6HeaderA.dscp, Ipv6HeaderA.ecn, Ipv6HeaderA.traffic_class. fold h.
    rewrite !(repr_rdU _ _ _ _ 0 R), !(repr_rdU _ _ _ _ 1 R) by lia. cbn [bind]. rewrite !N.add_0_r. fold p.
    destruct (BitFields.Proofs2.raw_fields_ipv6_01 (B bs p) (B bs (p + 1)) (B_lt _ _ Hok) (B_lt _ _ Hok))
      as (_ & E2 & E3 & _).
    unfold BitFields.Model.shl8 in E2, E3. rewrite E2, E3.
    unfold ipv6_spec2, ipp_fields2, win_of, wend. cbn [fst snd app]. fold h. fold p. fold x. fold pl.
    rewrite <- chain_end_bits, Dc. cbn [fst snd]. unfold bits. cbn [bytes_at].
    assert (SRC : ipp_src pl =
                  (if (W bs (p + 4) =? 0) && (p + 40 <? fst cur + snd cur) then LsSlice
                   else LsIpv6HeaderPayloadLen)).
    { rewrite Ds. destruct (W bs (p + 4) =? 0) eqn:C; cbn [andb]; [|reflexivity].
      assert (C' : W bs (p + 4) = 0) by lia. specialize (Nz C').
      destruct (0 <? s_len x + s_len (ipp_slice pl)) eqn:C1;
        destruct (p + 40 <? fst cur + snd cur) eqn:C2; try reflexivity; lia. }
    rewrite SRC.
    assert (WIN : (s_off (ipp_slice pl), s_len (ipp_slice pl)) =
                  (s_off x + s_len x,
                   (if W bs (p + 4) =? 0 then fst cur + snd cur else p + 40 + W bs (p + 4))
                   - (s_off x + s_len x))).
    { destruct (W bs (p + 4) =? 0) eqn:C.
      - assert (C' : W bs (p + 4) = 0) by lia. specialize (Nz C'). f_equal; lia.
      - assert (C' : 0 < W bs (p + 4)) by lia. destruct (Nnz C') as (A1 & _). f_equal; lia. }
    rewrite WIN. reflexivity.
  Qed.

  (* Ipv6FragmentHeaderSlice::is_fragmenting_payload *)
  Lemma frag_isfrag_ok h :
    in_buf bs h -> s_len h = 8 ->
    Ipv6FragmentHeaderA.is_fragmenting_payload h = Ok (frag_fragments_spec bs (s_off h)).
  Proof.
    intros I L. pose proof (in_buf_repr _ _ I) as R.
    unfold Ipv6FragmentHeaderA.is_fragmenting_payload, Ipv6FragmentHeaderA.more_fragments,
      Ipv6FragmentHeaderA.fragment_offset.
    rewrite !(repr_rdU _ _ _ _ 3 R), (repr_rdU _ _ _ _ 2 R) by lia. cbn [bind].
    set (p := s_off h). unfold frag_fragments_spec, flag, bits. cbn [bytes_at].
    replace (p + 3) with (p + 2 + 1) by lia.
    destruct (BitFields.Proofs2.raw_fields_frag (B bs (p + 2)) (B bs (p + 2 + 1)) (B_lt _ _ Hok) (B_lt _ _ Hok))
      as (E1 & E2).
    rewrite bitset_nonzero, <- (flag_of_b2n _ _ E2), <- E1. reflexivity.
  Qed.

  (* the iterator walks the chain: one layer per fragment header *)
  Import Ipv6ExtIterA.

  Lemma chain_fields2_ok fuel : forall nh I pos lim l,
    repr bs I pos lim -> collect fuel (mkExtIter nh I) = Ok l -> Forall item_wf l ->
    flatM item_fields2 l = Ok (chain_spec2 bs fuel nh pos lim).
  Proof.
    induction fuel as [|f IH]; intros nh I pos lim l R H Wl; [discriminate|].
    cbn [collect] in H. cbn [chain_spec2]. binv H o Eo.
    unfold next in Eo. cbn [xi_rest xi_next_header] in Eo.
    rewrite (repr_len _ _ _ _ R) in Eo. pose proof R as (_ & P1 & P2).
    destruct (lim - pos =? 0) eqn:E0.
    { injection Eo as <-. injection H as <-. destruct (lim <=? pos) eqn:C; [reflexivity|lia]. }
    destruct (lim <=? pos) eqn:C; [lia|].
    change IPN_HOP_BY_HOP with 0 in Eo. change IPN_ROUTE with 43 in Eo.
    change IPN_DEST_OPTIONS with 60 in Eo. change IPN_FRAG with 44 in Eo. change IPN_AUTH with 51 in Eo.
    assert (RAW : forall wrap,
      (forall s, item_wf (wrap s) = wf_raw s) -> (forall s, item_fields2 (wrap s) = Ok []) ->
      arm (mkExtIter nh I) Ipv6RawExtHeaderA.from_slice_unchecked Ipv6RawExtHeaderA.next_header wrap = Ok o ->
      flatM item_fields2 l =
      Ok (chain_spec2 bs f (B bs pos) (pos + (B bs (pos + 1) + 1) * 8) lim)).
    { intros wrap Hw Hf Ea.
      destruct (arm_step _ _ _ _ _ _ _ _ _ R Ea (raw_mk_prefix I) (fun _ => eq_refl)) as (sl & rest' & -> & Rsl & Rr).
      binv H r Er. injection H as <-. inversion Wl as [|? ? Wx Wr]; subst.
      rewrite Hw in Wx. rewrite <- (raw_len_spec _ _ _ Rsl Wx).
      cbn [flatM]. rewrite Hf. cbn [bind].
      rewrite (IH _ _ _ _ _ Rr Er Wr). reflexivity. }
    destruct (nh =? 0); cbn [orb].
    { apply (RAW XHopByHop); auto. }
    destruct (nh =? 43); cbn [orb].
    { apply (RAW XRouting); auto. }
    destruct (nh =? 60); cbn [orb].
    { apply (RAW XDestinationOptions); auto. }
    clear RAW.
    destruct (nh =? 44).
    { destruct (arm_step _ _ _ _ _ _ _ _ _ R Eo (frag_mk_prefix I) (fun _ => eq_refl)) as (sl & rest' & -> & Rsl & Rr).
      binv H r Er. injection H as <-. inversion Wl as [|? ? Wx Wr]; subst.
      cbn [item_wf] in Wx. unfold wf_frag in Wx. rewrite Wx in *.
      cbn [flatM item_fields2].
      rewrite (frag_isfrag_ok sl (repr_in_buf _ _ _ _ Rsl) Wx). cbn [bind].
      rewrite (repr_off _ _ _ _ Rsl).
      rewrite (IH _ _ _ _ _ Rr Er Wr). reflexivity. }
    destruct (nh =? 51).
    { destruct (arm_step _ _ _ _ _ _ _ _ _ R Eo (auth_mk_prefix I) (fun _ => eq_refl)) as (sl & rest' & -> & Rsl & Rr).
      binv H r Er. injection H as <-. inversion Wl as [|? ? Wx Wr]; subst.
      cbn [item_wf] in Wx. rewrite <- (ah_len_spec _ _ _ Rsl Wx).
      cbn [flatM item_fields2 bind].
      rewrite (IH _ _ _ _ _ Rr Er Wr). reflexivity. }
    injection Eo as <-. injection H as <-. reflexivity.
  Qed.

  Lemma chain_spec2_empty fuel nh pos : chain_spec2 bs (S fuel) nh pos pos = [].
  Proof. cbn [chain_spec2]. destruct (pos <=? pos) eqn:C; [reflexivity|lia]. Qed.

  Lemma udp_fields2_ok s ipw :
    in_buf bs s -> tr_ok bs ipw (VUdp (win_of s)) -> udp_fields2 s = Ok (udp_spec2 bs (win_of s)).
  Proof.
    intros I T. pose proof (in_buf_repr _ _ I) as R.
    cbn [tr_ok] in T. cbv zeta in T. unfold win_of in T. cbn [fst snd] in T.
    destruct T as (_ & L & _ & Tz & Tnz).
    unfold udp_fields2, UdpA.header_slice, UdpA.payload, UdpA.payload_len_source, UdpA.length.
    rewrite subN_ok by lia. cbn [bind].
    destruct (repr_subU_win bs s _ _ 0 8 R) as (w1 & E1 & W1); [lia|].
    destruct (repr_subU_win bs s _ _ 8 (s_len s - 8) R) as (w2 & E2 & W2); [lia|].
    rewrite E1. cbn [bind]. rewrite E2. cbn [bind].
    rewrite (repr_rd16 _ _ _ _ 4 R) by lia. cbn [bind]. rewrite W1, W2.
    unfold udp_spec2, win_of. cbn [fst snd]. rewrite N.add_0_r.
    destruct (W bs (s_off s + 4) =? 0) eqn:C.
    - destruct (W bs (s_off s + 4) =? s_len s) eqn:C2; [lia|reflexivity].
    - assert (C' : 0 < W bs (s_off s + 4)) by lia. specialize (Tnz C').
      destruct (W bs (s_off s + 4) =? s_len s) eqn:C2; [reflexivity|lia].
  Qed.

  Lemma tcp_fields2_ok hl s ipw :
    in_buf bs s -> tr_ok bs ipw (VTcp hl (win_of s)) -> tcp_fields2 (hl, s) = Ok (tcp_spec2 bs (win_of s)).
  Proof.
    intros I T. pose proof (in_buf_repr _ _ I) as R.
    cbn [tr_ok] in T. unfold win_of in T. cbn [fst snd] in T. destruct T as (_ & Thl & T20 & Tle).
    destruct (byte_facts (B bs (s_off s + 12)) (B_lt _ _ Hok)) as (E1 & _).
    destruct (byte_facts2 (B bs (s_off s + 12)) (B_lt _ _ Hok)) as (_ & _ & _ & _ & F5).
    assert (Hhl : bits bs (s_off s + 12) 1 0 4 * 4 = hl).
    { unfold bits. cbn [bytes_at]. rewrite <- E1, F5. now rewrite Thl. }
    unfold tcp_fields2, tcp_header_len, TcpSliceA.header_slice, TcpSliceA.payload. cbn [fst snd bind].
    rewrite subN_ok by lia. cbn [bind].
    destruct (repr_subU_win bs s _ _ 0 hl R) as (w1 & E1' & W1); [lia|].
    destruct (repr_subU_win bs s _ _ hl (s_len s - hl) R) as (w2 & E2 & W2); [lia|].
    rewrite E1'. cbn [bind]. rewrite E2. cbn [bind]. rewrite W1, W2.
    unfold tcp_spec2, win_of. cbn [fst snd]. rewrite Hhl, N.add_0_r. reflexivity.
  Qed.

  Lemma icmp4_fields2_ok s : in_buf bs s -> wf_icmp4 s -> icmp4_fields2 s = Ok (icmp4_spec2 bs (win_of s)).
  Proof.
    intros I (L & t & c & Et & Ec & Ts). pose proof (in_buf_repr _ _ I) as R.
    rewrite (repr_rdU _ _ _ _ 0 R) in Et by lia. rewrite (repr_rdU _ _ _ _ 1 R) in Ec by lia.
    rewrite N.add_0_r in Et. injection Et as <-. injection Ec as <-.
    unfold icmp4_fields2, Icmpv4A.header_len, Icmpv4A.payload, Icmpv4A.type_u8, Icmpv4A.code_u8.
    rewrite !(repr_rdU _ _ _ _ 0 R), !(repr_rdU _ _ _ _ 1 R) by lia. cbn [bind]. rewrite !N.add_0_r.
    set (p := s_off s) in *. unfold Icmpv4A.is_ts in *.
    unfold icmp4_spec2, win_of. cbn [fst snd]. fold p. rewrite (N.eqb_sym 0 (B bs (p + 1))) in *.
    destruct (((B bs p =? 13) || (B bs p =? 14)) && (B bs (p + 1) =? 0)) eqn:C.
    - specialize (Ts eq_refl). rewrite subN_ok by lia. cbn [bind].
      destruct (repr_subU_win bs s _ _ 20 (s_len s - 20) R) as (w & E & Ww); [lia|].
      unfold win_of in Ww. rewrite E. cbn [bind]. rewrite Ww. reflexivity.
    - rewrite subN_ok by lia. cbn [bind].
      destruct (repr_subU_win bs s _ _ 8 (s_len s - 8) R) as (w & E & Ww); [lia|].
      unfold win_of in Ww. rewrite E. cbn [bind]. rewrite Ww. reflexivity.
  Qed.

  Lemma icmp6_fields2_ok s : in_buf bs s -> 8 <= s_len s -> icmp6_fields2 s = Ok (icmp6_spec2 (win_of s)).
  Proof.
    intros I L. pose proof (in_buf_repr _ _ I) as R.
    unfold icmp6_fields2, icmp6_header_len, Icmpv6A.payload. cbn [bind]. rewrite subN_ok by lia. cbn [bind].
    destruct (repr_subU_win bs s _ _ 8 (s_len s - 8) R) as (w & E & Ww); [lia|].
    rewrite E. cbn [bind]. rewrite Ww. reflexivity.
  Qed.

  Lemma link_fields2_ok l : link_prov bs l -> link_fields2 l = Ok (spec_link2 bs (view_link l)).
  Proof.
    destruct l as [s|h w|e]; cbn [link_prov link_fields2 view_link spec_link2].
    - intros (src & I & H). apply eth2_plain_wf in H. destruct H as (-> & (_ & L)). cbn [e2_fcs_len e2_slice] in L.
      rewrite (eth_fields2_ok src I) by lia. reflexivity.
    - intros (src & I & H). apply sll_wf in H. destruct H as (((Lh & _) & Lw) & E & S). cbn [fst snd] in *.
      subst src.
      rewrite (sll_fields2_ok h w (sub_of_in_buf _ _ _ I S) I Lh Lw). reflexivity.
    - reflexivity.
  Qed.

  Lemma ext_fields2_ok x : ext_prov bs x -> ext_fields2 x = Ok (spec_ext2 bs (view_ext x)).
  Proof.
    destruct x as [s|m]; cbn [ext_prov ext_fields2 view_ext spec_ext2].
    - intros (src & I & H). apply vlan_wf in H. destruct H as (-> & L). unfold wf_vlan in L.
      rewrite (vlan_fields2_ok src I L). reflexivity.
    - intros (src & I & H). apply macsec_wf in H. destruct H as (Wm & S & _). unfold wf_macsec in Wm.
      rewrite (macsec_fields2_ok _ (sub_of_in_buf _ _ _ I S) Wm). reflexivity.
  Qed.

  Lemma ipv6_layers2_ok src v cur :
    in_buf bs src -> wf_ipv6 v /\ ipv6_in v src ->
    (exists nh, rdU (v6_header v) 6 = Ok nh /\
      (x6_first (v6_exts v) = Some nh \/
       (x6_first (v6_exts v) = None /\ s_len (x6_slice (v6_exts v)) = 0))) ->
    net_ok bs cur (view_net (NtIpv6 v)) -> net_desc bs (view_net (NtIpv6 v)) ->
    net_fields2 (NtIpv6 v) = Ok (spec_net2 bs (wend cur) (view_net (NtIpv6 v))).
  Proof.
    intros I ((Wh & (l & El & G)) & (Sh & Sx & _)) (nh & Enh & F) N D.
    cbn [net_fields2 view_net spec_net2]. pose proof Wh as Wh'. unfold wf_ipv6h in Wh'.
    pose proof (sub_of_in_buf _ _ _ I Sh) as Ih. pose proof (sub_of_in_buf _ _ _ I Sx) as Ix.
    rewrite (ipv6_fields2_ok v cur Ih Wh N D). cbn [bind]. rewrite El. cbn [bind].
    pose proof (in_buf_repr _ _ Ih) as Rh. pose proof (in_buf_repr _ _ Ix) as Rx.
    rewrite (repr_rdU _ _ _ _ 6 Rh) in Enh by lia. injection Enh as <-.
    destruct G as (_ & _ & Wl & _).
    unfold Ipv6ExtIterA.items, Ipv6ExtIterA.into_iter in El. rewrite s_len_length in El.
    unfold win_of. cbn [fst snd].
    destruct F as [F|(F & L0)]; rewrite F in El.
    - rewrite (chain_fields2_ok _ _ _ _ _ _ Rx El Wl). reflexivity.
    - rewrite L0 in *. rewrite N.add_0_r in *.
      rewrite (chain_fields2_ok _ _ _ _ _ _ Rx El Wl). cbn [N.to_nat]. rewrite !chain_spec2_empty. reflexivity.
  Qed.

  Lemma net_fields2_ok n cur :
    net_prov bs n -> net_ok bs cur (view_net n) -> net_desc bs (view_net n) ->
    net_fields2 n = Ok (spec_net2 bs (wend cur) (view_net n)).
  Proof.
    destruct n as [v|v|a]; cbn [net_prov].
    - intros (src & I & H) N D.
      assert (X : wf_ipv4 v /\ ipv4_in v src).
      { destruct H as [H|H]; [now apply ipv4_wf|exact (ip_wf _ _ H)]. }
      destruct X as ((Wh & _) & (Sh & _)).
      cbn [net_fields2 view_net spec_net2].
      rewrite (ipv4_fields2_ok v cur (sub_of_in_buf _ _ _ I Sh) Wh N D). reflexivity.
    - intros (src & I & H) N D. apply (ipv6_layers2_ok src v cur I); auto.
      + destruct H as [H|H]; [now apply ipv6_wf|exact (ip_wf _ _ H)].
      + exact (ipv6_first src v H).
    - intros (src & I & H) _ _. apply arp_wf in H. destruct H as (Wa & S).
      cbn [net_fields2 view_net spec_net2].
      rewrite (arp_fields2_ok a (sub_of_in_buf _ _ _ I S) Wa). reflexivity.
  Qed.

  Lemma transport_fields2_ok t ipw :
    transport_prov bs t -> tr_ok bs ipw (view_tr t) -> transport_fields2 t = Ok (spec_tr2 bs (view_tr t)).
  Proof.
    destruct t as [s|hl s|s|s]; cbn [transport_prov transport_fields2 view_tr spec_tr2].
    - intros (src & I & H) T. apply udp_wf in H. destruct H as (L & S).
      rewrite (udp_fields2_ok s ipw (sub_of_in_buf _ _ _ I S) T). reflexivity.
    - intros (src & I & H) T. apply tcp_wf in H. destruct H as (_ & E). cbn [fst snd] in *. subst src.
      rewrite (tcp_fields2_ok hl s ipw I T). reflexivity.
    - intros (src & I & H) _. apply icmp4_wf in H. destruct H as (-> & Wf).
      rewrite (icmp4_fields2_ok src I Wf). reflexivity.
    - intros (src & I & H) _. apply icmp6_wf in H. destruct H as (-> & L). unfold wf_icmp6 in L.
      rewrite (icmp6_fields2_ok src I L). reflexivity.
  Qed.

  Lemma mapM_ext2_ok xs :
    Forall (ext_prov bs) xs -> mapM ext_fields2 xs = Ok (map (spec_ext2 bs) (map view_ext xs)).
  Proof.
    induction 1 as [|x xs Hx _ IH]; [reflexivity|].
    cbn [mapM map]. rewrite (ext_fields2_ok x Hx). cbn [bind]. rewrite IH. reflexivity.
  Qed.

  Theorem fields2_of_wf p :
    sliced_wf bs p -> nested bs (view p) -> desc bs (view p) ->
    fields2_of_packet p = Ok (spec_fields2 bs (view p)).
  Proof.
    intros (A & X & C & D) (_ & _ & Nn & Nt) Dn. unfold fields2_of_packet, spec_fields2, net_cur.
    unfold desc in Dn. unfold view in *. cbn [v_link v_exts v_net v_transport] in *.
    set (cur := exts_final (link_payload bs (option_map view_link (sp_link p))) (map view_ext (sp_exts p))) in *.
    assert (EA : ropt2 link_fields2 (sp_link p) = Ok (dopt (spec_link2 bs) (option_map view_link (sp_link p)))).
    { destruct (sp_link p) as [l|]; cbn [ropt2 dopt option_map optP] in *; [now apply link_fields2_ok|reflexivity]. }
    assert (EC : ropt2 net_fields2 (sp_net p) =
                 Ok (dopt (spec_net2 bs (wend cur)) (option_map view_net (sp_net p)))).
    { destruct (sp_net p) as [n|]; cbn [ropt2 dopt option_map optP] in *; [now apply net_fields2_ok|reflexivity]. }
    assert (ED : ropt2 transport_fields2 (sp_transport p) =
                 Ok (dopt (spec_tr2 bs) (option_map view_tr (sp_transport p)))).
    { destruct (sp_transport p) as [t|]; cbn [ropt2 dopt option_map optP] in *; [|reflexivity].
      unfold tr_nested in Nt.
      destruct (net_payload (option_map view_net (sp_net p))) as [ip|]; [|contradiction].
      destruct Nt as (_ & Nt). now apply (transport_fields2_ok t (vip_win ip)). }
    rewrite EA. cbn [bind]. rewrite (mapM_ext2_ok _ X). cbn [bind]. rewrite EC. cbn [bind]. rewrite ED.
    reflexivity.
  Qed.
End Link2.

(* ---- the four strict entry points: with the C03 refinement (the view is the view of the
   reference decoder, hence nested and described) ------------------------------------------- *)
Theorem fields2_wire_from_ethernet bs p : bytes_ok bs -> SlicedPacket.from_ethernet bs = Ok p ->
  wire_ethernet bs = VOk (view p) /\ fields2_of_packet p = Ok (spec_fields2 bs (view p)).
Proof.
  intros Hok H. destruct (strict_nested_from_ethernet bs Hok p H) as (E & N & _).
  split; [exact E|]. apply (fields2_of_wf bs Hok p); [|exact N|exact (wire_ethernet_desc bs _ E)].
  apply (sliced_wf_entry bs 0 p). auto.
Qed.

Theorem fields2_wire_from_linux_sll bs p : bytes_ok bs -> SlicedPacket.from_linux_sll bs = Ok p ->
  wire_linux_sll bs = VOk (view p) /\ fields2_of_packet p = Ok (spec_fields2 bs (view p)).
Proof.
  intros Hok H. destruct (strict_nested_from_linux_sll bs Hok p H) as (E & N & _).
  split; [exact E|]. apply (fields2_of_wf bs Hok p); [|exact N|exact (wire_linux_sll_desc bs _ E)].
  apply (sliced_wf_entry bs 0 p). auto.
Qed.

Theorem fields2_wire_from_ether_type bs et p : bytes_ok bs -> SlicedPacket.from_ether_type et bs = Ok p ->
  wire_ether_type bs et = VOk (view p) /\ fields2_of_packet p = Ok (spec_fields2 bs (view p)).
Proof.
  intros Hok H. destruct (strict_nested_from_ether_type bs et Hok p H) as (E & N & _).
  split; [exact E|]. apply (fields2_of_wf bs Hok p); [|exact N|exact (wire_ether_type_desc bs et _ E)].
  apply (sliced_wf_entry bs et p). auto.
Qed.

Theorem fields2_wire_from_ip bs p : bytes_ok bs -> SlicedPacket.from_ip bs = Ok p ->
  wire_from_ip bs = VOk (view p) /\ fields2_of_packet p = Ok (spec_fields2 bs (view p)).
Proof.
  intros Hok H. destruct (strict_nested_from_ip bs Hok p H) as (E & N & _).
  split; [exact E|]. apply (fields2_of_wf bs Hok p); [|exact N|exact (wire_from_ip_desc bs _ E)].
  apply (sliced_wf_entry bs 0 p). auto.
Qed.
