(* Parse/LaxFacts.v -- the property-level facts about the lax slicing model:
   (c) Err exactly for an undecodable first header, (d) incomplete flags against the
   length fields, (a)/(b) in the form the property states them.  Built on
   Parse/LaxProofs.v (lax against strict model). *)
From EP Require Import Base.Bytes Parse.Types Parse.Slices Parse.Cursor Parse.View Parse.WireSpec Parse.Repr
  Parse.StrictProofs Parse.LaxSlices Parse.LaxCursor Parse.LaxView Parse.LaxProofs.
From Coq Require Import ZArith Lia ZifyN ZifyBool.
Local Open Scope N_scope.

(* (c): behind the first header the lax functions never return Err *)
Lemma slice_transport_not_err lc p : no_err (L.slice_transport lc p).
Proof. unfold L.slice_transport. ne. Qed.
#[export] Hint Resolve slice_transport_not_err : ne.

Lemma slice_ip_not_err lc s : no_err (L.slice_ip lc s).
Proof. unfold L.slice_ip, L.ptr_diff. ne. Qed.

Lemma slice_arp_not_err lc s : no_err (L.slice_arp lc s).
Proof. unfold L.slice_arp. ne. Qed.
#[export] Hint Resolve slice_ip_not_err slice_arp_not_err : ne.

Lemma ether_loop_not_err : forall fuel lc ep, no_err (L.slice_ether_type_loop fuel lc ep).
Proof.
  induction fuel as [|f IH]; intros lc ep; cbn [L.slice_ether_type_loop]; [apply ne_bug|].
  unfold SingleVlanSlice.payload, SingleVlanSlice.ether_type, SingleVlanSlice.payload_slice,
    Macsec.header_len, Macsec.sci_present, Macsec.is_unmodified, Macsec.tci_an_raw, L.push_ext.
  ne.
Qed.
#[export] Hint Resolve ether_loop_not_err : ne.

Lemma rdU_whole bs i : i < len bs -> rdU (mk_slice bs) i = Ok (B bs i).
Proof.
  intros H. rewrite (repr_rdU bs (mk_slice bs) 0 (len bs) i (repr_whole bs)) by lia.
  now rewrite N.add_0_l.
Qed.

Lemma s_len_whole bs : s_len (mk_slice bs) = len bs.
Proof. reflexivity. Qed.

(* from_ethernet: Err exactly when the Ethernet II header does not fit *)
Theorem lax_from_ethernet_err_iff bs e :
  LaxSlicedPacket.from_ethernet bs = Err e <->
  (len bs < 14 /\ e = ELen (mkLenError 14 (len bs) LsSlice LyEthernet2Header 0)).
Proof.
  unfold LaxSlicedPacket.from_ethernet, L.parse_from_ethernet2. rewrite bind_err_iff.
  2:{ intros e2. unfold Ethernet2Slice.payload, Ethernet2Slice.ether_type, Ethernet2Slice.payload_slice,
        L.slice_ether_type. ne. }
  unfold Ethernet2Slice.from_slice_without_fcs, lerr. rewrite s_len_whole.
  destruct (len bs <? 14) eqn:E.
  - split; [intros H; injection H as <-; split; [lia|reflexivity]|intros (_ & ->); reflexivity].
  - split; [discriminate|intros (H & _); lia].
Qed.

Theorem lax_from_ether_type_never_err et bs e : LaxSlicedPacket.from_ether_type et bs <> Err e.
Proof. apply ether_loop_not_err. Qed.

(* the IP header as such is undecodable: reference condition over the bytes *)
Definition ip_header_fault (bs : bytes) : option slice_error :=
  if len bs =? 0 then Some (ELen (mkLenError 1 (len bs) LsSlice LyIpHeader 0))
  else
    let ver := B bs 0 / 16 in
    if ver =? 4 then
      let ihl := B bs 0 mod 16 in
      if ihl <? 5 then Some (EContent (CeIpIhl ihl))
      else if len bs <? ihl * 4 then Some (ELen (mkLenError (ihl * 4) (len bs) LsSlice LyIpv4Header 0))
      else None
    else if ver =? 6 then
      if len bs <? 40 then Some (ELen (mkLenError 40 (len bs) LsSlice LyIpv6Header 0)) else None
    else Some (EContent (CeIpUnsupportedVersion ver)).

Lemma some_inj {A} (a b : A) : Some a = Some b <-> a = b.
Proof. split; [intros H; now injection H|now intros ->]. Qed.

Lemma err_inj {A} (a b : slice_error) : @Err A a = Err b <-> a = b.
Proof. split; [intros H; now injection H|now intros ->]. Qed.

Theorem lax_ip_slice_err_iff bs e :
  LaxIpSlice.from_slice (mk_slice bs) = Err e <-> ip_header_fault bs = Some e.
Proof.
  unfold LaxIpSlice.from_slice, ip_header_fault, lerr. rewrite s_len_whole.
  destruct (len bs =? 0) eqn:E0. { rewrite err_inj, some_inj. split; intros <-; reflexivity. }
  rewrite rdU_whole by lia. cbn [bind]. rewrite shr4_div16, land15_mod.
  destruct (B bs 0 / 16 =? 4).
  { destruct (B bs 0 mod 16 <? 5). { rewrite err_inj, some_inj. reflexivity. }
    destruct (len bs <? B bs 0 mod 16 * 4). { rewrite err_inj, some_inj. reflexivity. }
    apply no_err_iff; [|discriminate]. unfold Ipv4HeaderSlice.total_len. ne. }
  destruct (B bs 0 / 16 =? 6); [|rewrite err_inj, some_inj; reflexivity].
  destruct (len bs <? 40) eqn:E40. { rewrite err_inj, some_inj. reflexivity. }
  apply no_err_iff; [|discriminate]. unfold Ipv6HeaderSlice.payload_length. ne.
Qed.

Theorem lax_from_ip_err_iff bs e :
  LaxSlicedPacket.from_ip bs = Err e <-> ip_header_fault bs = Some e.
Proof.
  rewrite <- lax_ip_slice_err_iff. unfold LaxSlicedPacket.from_ip, L.parse_from_ip.
  apply bind_err_iff. intros [ip st]. unfold L.ptr_diff. ne.
Qed.

(* (c) for the single-layer slicers: Err exactly when the header slicer fails *)
Theorem lax_ipv4_err_iff s e :
  LaxIpv4Slice.from_slice s = Err e <-> Ipv4HeaderSlice.from_slice s = Err e.
Proof.
  unfold LaxIpv4Slice.from_slice. apply bind_err_iff.
  intros h. unfold Ipv4HeaderSlice.total_len. ne.
Qed.

Theorem lax_ipv6_err_iff s e :
  LaxIpv6Slice.from_slice s = Err e <-> Ipv6HeaderSlice.from_slice s = Err e.
Proof.
  unfold LaxIpv6Slice.from_slice. apply bind_err_iff.
  intros h. unfold Ipv6HeaderSlice.payload_length. ne.
Qed.

Theorem lax_macsec_err_iff s e :
  LaxMacsecSlice.from_slice s = Err e <-> Macsec.header_from_slice s = Err e.
Proof.
  unfold LaxMacsecSlice.from_slice. apply bind_err_iff.
  intros h. unfold Macsec.expected_payload_len, Macsec.short_len, Macsec.header_len,
    Macsec.sci_present, Macsec.is_unmodified, Macsec.next_ether_type, Macsec.tci_an_raw.
  ne.
Qed.

Theorem lax_udp_err_iff s e :
  UdpSlice.from_slice_lax s = Err e <-> UdpSlice.header_from_slice s = Err e.
Proof.
  unfold UdpSlice.from_slice_lax. apply bind_err_iff.
  intros h. unfold UdpSlice.length. ne.
Qed.

Lemma ne_laxexts4 nh s : no_err (LaxIpv4Exts.from_slice_lax nh s).
Proof. unfold LaxIpv4Exts.from_slice_lax, IpAuthHeaderSlice.next_header. ne. Qed.
#[export] Hint Resolve ne_laxexts4 : ne.

Theorem lax_ipv4_exts_never_err nh s e : LaxIpv4Exts.from_slice_lax nh s <> Err e.
Proof. apply ne_laxexts4. Qed.

(* (d): incomplete <-> the length field promises more than the slice holds *)
Definition s_end (s : slice) : N := s_off s + s_len s.

Lemma ipv4_header_le s h :
  Ipv4HeaderSlice.from_slice s = Ok h -> s_len h <= s_len s /\ s_off h = s_off s.
Proof.
  unfold Ipv4HeaderSlice.from_slice, lerr.
  destruct (s_len s <? 20); [discriminate|]. dprim (rdU s 0) v Ev.
  destruct (negb (N.shiftr v 4 =? 4)); [discriminate|].
  destruct (N.land v 15 <? 5); [discriminate|].
  destruct (s_len s <? N.land v 15 * 4); [discriminate|].
  intros H. pose proof (subU_inv _ _ _ _ H) as (A & _).
  rewrite (subU_len _ _ _ _ H), (subU_off _ _ _ _ H). lia.
Qed.

Lemma v4_finish_fields h hp src inc v st :
  LaxIpv4Slice.finish h hp src inc = Ok (v, st) ->
  lipp_incomplete (lv4_payload v) = inc /\ lipp_src (lv4_payload v) = src /\
  s_end (lipp_slice (lv4_payload v)) = s_end hp.
Proof.
  unfold LaxIpv4Slice.finish.
  unfold Ipv4HeaderSlice.is_fragmenting_payload, Ipv4HeaderSlice.more_fragments,
    Ipv4HeaderSlice.fragments_offset, Ipv4HeaderSlice.protocol.
  dprim (rdU h 6) b6 E6. dprim (rdU h 7) b7 E7. dprim (rdU h 9) proto E9.
  destruct (proto =? IPN_AUTH).
  - destruct (IpAuthHeaderSlice.from_slice hp) as [auth|ea|b]; [| |discriminate].
    + dprim (subN (s_len hp) (s_len auth)) n En. dprim (subU hp (s_len auth) n) payload Ep.
      unfold IpAuthHeaderSlice.next_header. dprim (rdU auth 0) nh Enh.
      intros H. injection H as <- <-. cbn. repeat split. exact (rest_end _ _ _ _ En Ep).
    + intros H. injection H as <- <-. cbn. auto.
  - intros H. injection H as <- <-. cbn. auto.
Qed.

(* what the payload selection promises: flagged exactly when more is announced than present
   (`short`), and then the payload is measured by the slice and runs to its end *)
Definition sel_ok (s : slice) (short : bool) (hp : slice) (src : len_source) (inc : bool) : Prop :=
  inc = short /\ (inc = true -> src = LsSlice /\ s_end hp = s_end s).

Lemma sel_ok_fields s short hp src inc (p : lax_ip_payload) :
  sel_ok s short hp src inc ->
  lipp_incomplete p = inc /\ lipp_src p = src /\ s_end (lipp_slice p) = s_end hp ->
  lipp_incomplete p = short /\
  (lipp_incomplete p = true -> lipp_src p = LsSlice /\ s_end (lipp_slice p) = s_end s).
Proof. intros (<- & H) (-> & -> & ->). split; [reflexivity|exact H]. Qed.

Lemma select_payload_ok s hl tlen hp src inc :
  hl <= s_len s -> LaxIpv4Slice.select_payload s hl tlen = Ok (hp, src, inc) ->
  sel_ok s (s_len s <? tlen) hp src inc.
Proof.
  intros Hle. unfold LaxIpv4Slice.select_payload, sel_ok.
  destruct (tlen <? hl) eqn:E1; [|destruct (s_len s <? tlen) eqn:E2].
  - dprim (subN (s_len s) hl) n En. dprim (subU s hl n) p Ep. intros H. injection H as <- <- <-.
    split; [symmetry; apply N.ltb_ge; lia|discriminate].
  - dprim (subN (s_len s) hl) n En. dprim (subU s hl n) p Ep. intros H. injection H as <- <- <-.
    split; [reflexivity|]. intros _. split; [reflexivity|exact (rest_end _ _ _ _ En Ep)].
  - dprim (subN tlen hl) n En. dprim (subU s hl n) p Ep. intros H. injection H as <- <- <-.
    split; [reflexivity|discriminate].
Qed.

Theorem lax_ipv4_incomplete s v st :
  LaxIpv4Slice.from_slice s = Ok (v, st) ->
  exists h tlen,
    Ipv4HeaderSlice.from_slice s = Ok h /\ Ipv4HeaderSlice.total_len h = Ok tlen /\
    lipp_incomplete (lv4_payload v) = (s_len s <? tlen) /\
    (lipp_incomplete (lv4_payload v) = true ->
     lipp_src (lv4_payload v) = LsSlice /\ s_end (lipp_slice (lv4_payload v)) = s_end s).
Proof.
  unfold LaxIpv4Slice.from_slice.
  destruct (Ipv4HeaderSlice.from_slice s) as [h|e0|b0] eqn:Eh; cbn [bind]; [|discriminate|discriminate].
  destruct (Ipv4HeaderSlice.total_len h) as [tlen|e0|b0] eqn:Et; cbn [bind]; [|discriminate|discriminate].
  destruct (LaxIpv4Slice.select_payload s (s_len h) tlen) as [[[hp src] inc]|e0|b0] eqn:Es; cbn [bind];
    [|discriminate|discriminate].
  intros F. exists h, tlen. split; [reflexivity|]. split; [exact Et|].
  apply (sel_ok_fields s _ hp src inc).
  - exact (select_payload_ok _ _ _ _ _ _ (proj1 (ipv4_header_le s h Eh)) Es).
  - exact (v4_finish_fields _ _ _ _ _ _ F).
Qed.

Lemma v6_finish_fields h hp src inc v st :
  LaxIpv6Slice.finish h hp src inc = Ok (v, st) ->
  lipp_incomplete (lv6_payload v) = inc /\ lipp_src (lv6_payload v) = src /\
  s_end (lipp_slice (lv6_payload v)) = s_end hp.
Proof.
  unfold LaxIpv6Slice.finish, Ipv6HeaderSlice.next_header.
  dprim (rdU h 6) nh Enh.
  pose proof (proj2 (exts_spec nh hp)) as E.
  destruct (LaxIpv6Exts.from_slice_lax nh hp) as [[[[x n] r] st0]|e0|b]; cbn [bind];
    [|discriminate|discriminate].
  intros H. injection H as <- _. cbn. repeat split. exact E.
Qed.

Theorem lax_ipv6_incomplete s v st :
  LaxIpv6Slice.from_slice s = Ok (v, st) ->
  exists h pl,
    Ipv6HeaderSlice.from_slice s = Ok h /\ Ipv6HeaderSlice.payload_length h = Ok pl /\
    lipp_incomplete (lv6_payload v) = (s_len s <? 40 + pl) /\
    (lipp_incomplete (lv6_payload v) = true ->
     lipp_src (lv6_payload v) = LsSlice /\ s_end (lipp_slice (lv6_payload v)) = s_end s).
Proof.
  unfold LaxIpv6Slice.from_slice.
  destruct (Ipv6HeaderSlice.from_slice s) as [h|e0|b0] eqn:Eh; cbn [bind]; [|discriminate|discriminate].
  destruct (Ipv6HeaderSlice.payload_length h) as [pl|e0|b0] eqn:Et; cbn [bind]; [|discriminate|discriminate].
  intros F. exists h, pl. split; [reflexivity|]. split; [exact Et|]. revert F.
  destruct ((0 =? pl) && (40 <? s_len s)) eqn:E1; [|destruct (s_len s <? 40 + pl) eqn:E2].
  - dprim (subN (s_len s) 40) n En. dprim (subU s 40 n) hp Ehp. intros F.
    refine (sel_ok_fields s _ _ _ _ _ _ (v6_finish_fields _ _ _ _ _ _ F)).
    split; [symmetry; apply N.ltb_ge; lia|discriminate].
  - dprim (subN (s_len s) 40) n En. dprim (subU s 40 n) hp Ehp. intros F.
    refine (sel_ok_fields s _ _ _ _ _ _ (v6_finish_fields _ _ _ _ _ _ F)).
    split; [reflexivity|]. intros _. split; [reflexivity|exact (rest_end _ _ _ _ En Ehp)].
  - dprim (subU s 40 pl) hp Ehp. intros F.
    refine (sel_ok_fields s _ _ _ _ _ _ (v6_finish_fields _ _ _ _ _ _ F)).
    split; [reflexivity|discriminate].
Qed.

Definition lms_incomplete (m : lax_macsec_slice) : bool :=
  match lms_payload m with LMpUnmodified e => lep_incomplete e | LMpModified i _ => i end.
Definition lms_pslice (m : lax_macsec_slice) : slice :=
  match lms_payload m with LMpUnmodified e => lep_slice e | LMpModified _ s => s end.
Definition lms_src_ok (m : lax_macsec_slice) : Prop :=
  match lms_payload m with LMpUnmodified e => lep_src e = LsSlice | LMpModified _ _ => True end.

Theorem lax_macsec_incomplete s m :
  LaxMacsecSlice.from_slice s = Ok m ->
  exists h epl,
    Macsec.header_from_slice s = Ok h /\ Macsec.expected_payload_len h = Ok epl /\
    lms_incomplete m =
      (match epl with Some req => s_len s <? s_len h + req | None => false end) /\
    (lms_incomplete m = true -> lms_src_ok m /\ s_end (lms_pslice m) = s_end s).
Proof.
  unfold LaxMacsecSlice.from_slice.
  destruct (Macsec.header_from_slice s) as [h|e0|b0] eqn:Eh; cbn [bind]; [|discriminate|discriminate].
  rewrite (macsec_header_len s h Eh).
  destruct (Macsec.expected_payload_len h) as [epl|e0|b0] eqn:Ee; cbn [bind]; [|discriminate|discriminate].
  intros H. exists h, epl. split; [reflexivity|]. split; [exact Ee|]. revert H.
  assert (Done : forall inc p src,
    (let* net := Macsec.next_ether_type h in
     match net with
     | Some et => Ok (mkLaxMacsec h (LMpUnmodified (mkLaxEp inc et src p)))
     | None => Ok (mkLaxMacsec h (LMpModified inc p))
     end) = Ok m ->
    lms_incomplete m = inc /\ lms_pslice m = p /\ (src = LsSlice -> lms_src_ok m)).
  { intros inc p src. destruct (Macsec.next_ether_type h) as [[et|]|e0|b0]; cbn [bind]; try discriminate;
      intros H; injection H as <-; cbn; auto. }
  destruct epl as [req|]; cbn [bind]; [destruct (s_len s <? s_len h + req)|].
  - dprim (subN (s_len s) (s_len h)) n En. dprim (subU s (s_len h) n) p Ep.
    intros H. apply Done in H. destruct H as (-> & -> & Hs).
    split; [reflexivity|]. intros _. split; [auto|exact (rest_end _ _ _ _ En Ep)].
  - dprim (subU s (s_len h) req) p Ep.
    intros H. apply Done in H. destruct H as (-> & _). split; [reflexivity|discriminate].
  - dprim (subN (s_len s) (s_len h)) n En. dprim (subU s (s_len h) n) p Ep.
    intros H. apply Done in H. destruct H as (-> & _). split; [reflexivity|discriminate].
Qed.

(* (a) in the form the property states it *)
Definition extends (strict : res sliced_packet) (lax : res lax_sliced_packet) : Prop :=
  forall r, strict = Ok r ->
  exists r', lax = Ok r' /\ strictify (lview r') = view r /\ lsp_stop_err r' = None /\
             all_complete (lview r') = true.

Lemma extends_of strict lax :
  (forall r, strict = Ok r -> lax = Ok (lax_of_packet r)) -> extends strict lax.
Proof.
  intros H r Hr. exists (lax_of_packet r). split; [now apply H|].
  split; [apply strictify_lax_of|]. split; [reflexivity|apply complete_lax_of].
Qed.

Theorem lax_extends_strict bs et :
  extends (SlicedPacket.from_ethernet bs) (LaxSlicedPacket.from_ethernet bs) /\
  extends (SlicedPacket.from_ether_type et bs) (LaxSlicedPacket.from_ether_type et bs) /\
  extends (SlicedPacket.from_ip bs) (LaxSlicedPacket.from_ip bs).
Proof.
  split; [|split]; apply extends_of.
  - apply from_ethernet_extends.
  - apply from_ether_type_extends.
  - apply from_ip_extends.
Qed.

Lemma ipv4_exts_sim nh s :
  match Ipv4Exts.from_slice nh s with
  | Ok w => LaxIpv4Exts.from_slice_lax nh s = Ok (w, None)
  | Err e => LaxIpv4Exts.from_slice_lax nh s = Ok (None, nh, s, Some e)
  | Bug _ => True
  end.
Proof.
  unfold Ipv4Exts.from_slice, LaxIpv4Exts.from_slice_lax.
  destruct (IPN_AUTH =? nh); [|reflexivity].
  destruct (IpAuthHeaderSlice.from_slice s) as [h|e|b] eqn:Eh; cbn [bind]; [|reflexivity|exact I].
  revert Eh. unfold IpAuthHeaderSlice.from_slice, lerr.
  destruct (s_len s <? 12); [discriminate|]. dprim (rdU s 1) pl E1.
  destruct (pl <? 1); [discriminate|]. destruct (s_len s <? (pl + 2) * 4) eqn:El; [discriminate|].
  intros Hs. pose proof (subU_inv _ _ _ _ Hs) as (A & Hh).
  assert (Hl : s_len h = (pl + 2) * 4) by exact (subU_len _ _ _ _ Hs).
  destruct (s_len h <=? s_len s) eqn:Ele; [|lia]. cbn [bind].
  rewrite (subN_ok (s_len s) (s_len h)) by lia. cbn [bind].
  unfold subU. destruct (s_len h + (s_len s - s_len h) <=? s_len s) eqn:E2; [|lia]. cbn [bind].
  unfold IpAuthHeaderSlice.next_header. dprim (rdU h 0) x Ex.
  do 3 f_equal. f_equal. unfold take, drop. apply firstn_all2.
  rewrite skipn_length. unfold s_len, len in *. lia.
Qed.

(* (a) for the single-layer slicers *)
Theorem lax_extends_strict_single s nh :
  (forall i, IpSlice.from_slice s = Ok i -> LaxIpSlice.from_slice s = Ok (lax_of_ip i, None)) /\
  (forall v, Ipv4Slice.from_slice s = Ok v -> LaxIpv4Slice.from_slice s = Ok (lax_of_v4 v, None)) /\
  (forall v, Ipv6Slice.from_slice s = Ok v -> LaxIpv6Slice.from_slice s = Ok (lax_of_v6 v, None)) /\
  (forall m, Macsec.from_slice s = Ok m -> LaxMacsecSlice.from_slice s = Ok (lax_of_macsec m)) /\
  (forall u, UdpSlice.from_slice s = Ok u -> UdpSlice.from_slice_lax s = Ok u) /\
  (forall w, Ipv6ExtensionsSlice.from_slice nh s = Ok w -> LaxIpv6Exts.from_slice_lax nh s = Ok (w, None)) /\
  (forall w, Ipv4Exts.from_slice nh s = Ok w -> LaxIpv4Exts.from_slice_lax nh s = Ok (w, None)).
Proof.
  repeat split.
  - intros i H. pose proof (ipslice_sim s) as X. now rewrite H in X.
  - intros v H. pose proof (ipv4_sim s) as X. now rewrite H in X.
  - intros v H. pose proof (ipv6_sim s) as X. now rewrite H in X.
  - intros m H. pose proof (macsec_sim s) as X. now rewrite H in X.
  - intros u H. pose proof (udp_lax_of_strict s) as X. now rewrite H in X.
  - intros w H. pose proof (exts_sim nh s) as X. now rewrite H in X.
  - intros w H. pose proof (ipv4_exts_sim nh s) as X. now rewrite H in X.
Qed.

(* (b) per layer: a strict rejection is a fault of the first header (lax: the same Err),
   a documented length fallback, or it is recorded unchanged as stop error with a fitting
   layer tag *)
Theorem lax_records_fault_single s nh :
  (forall e, Ipv4Slice.from_slice s = Err e ->
     match LaxIpv4Slice.from_slice s with
     | Ok (_, st) => v4_len_fallback e \/ (st = Some e /\ auth_fault e)
     | Err e' => e' = e /\ Ipv4HeaderSlice.from_slice s = Err e
     | Bug _ => True
     end) /\
  (forall e, Ipv6Slice.from_slice s = Err e ->
     match LaxIpv6Slice.from_slice s with
     | Ok (_, st) => v6_len_fallback e \/ stop_is st e
     | Err e' => e' = e /\ Ipv6HeaderSlice.from_slice s = Err e
     | Bug _ => True
     end) /\
  (forall e, Ipv6ExtensionsSlice.from_slice nh s = Err e ->
     match LaxIpv6Exts.from_slice_lax nh s with
     | Ok (_, st) => stop_is st e
     | Err _ => False
     | Bug _ => True
     end) /\
  (forall e, Ipv4Exts.from_slice nh s = Err e ->
     LaxIpv4Exts.from_slice_lax nh s = Ok (None, nh, s, Some e)) /\
  (forall e, UdpSlice.from_slice s = Err e ->
     exists l, e = ELen l /\
     ((UdpSlice.header_from_slice s = Err e /\ UdpSlice.from_slice_lax s = Err e) \/
      (udp_fallback l /\ UdpSlice.from_slice_lax s = Ok s))).
Proof.
  repeat split.
  - intros e H. pose proof (ipv4_sim s) as X. rewrite H in X.
    destruct (LaxIpv4Slice.from_slice s) as [[v st]|e'|b]; [exact (proj2 X)|exact X|exact I].
  - intros e H. pose proof (ipv6_sim s) as X. rewrite H in X.
    destruct (LaxIpv6Slice.from_slice s) as [[v st]|e'|b]; [exact (proj2 X)|exact X|exact I].
  - intros e H. pose proof (exts_sim nh s) as X. rewrite H in X.
    destruct (LaxIpv6Exts.from_slice_lax nh s) as [[v st]|e'|b]; [exact X|exact X|exact I].
  - intros e H. pose proof (ipv4_exts_sim nh s) as X. now rewrite H in X.
  - intros e H. pose proof (udp_lax_of_strict s) as X. rewrite H in X.
    destruct e as [l|c]; [|contradiction]. exists l. split; [reflexivity|].
    destruct X as [X|(F & h & _ & X)]; [left; exact X|right; split; assumption].
Qed.

(* the transport step of the whole-packet cursors (used behind every IP layer) *)
Theorem lax_records_fault_transport c lc p :
  lc_offset lc = c_offset c -> c_src c = ipp_src p -> lsp_stop_err (lc_result lc) = None ->
  lc_result lc = lax_of_packet (c_result c) ->
  forall e, SlicedPacketCursor.transport_dispatch c p = Err e ->
  exists r', L.slice_transport lc (lax_of_ipp p) = Ok r' /\
             ((exists l, e = ELen l /\ udp_fallback l) \/ recorded (lc_result lc) r' e).
Proof.
  intros H1 H2 H3 H4 e H. pose proof (transport_sim c lc p H1 H2 H3 H4) as X. now rewrite H in X.
Qed.

