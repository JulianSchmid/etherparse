(* Parse/ConstsAllOk.v -- EVERY numeric `pub const` item of the crate (517 on the verified
   tree), re-extracted from the source on every run into Gen/ConstsAll.v by
   tools/gen_consts_all.py, has the value stated here.  The statements were written once from
   the verified tree (tools/gen_consts_all.py --emit-pins) and are the IANA / RFC / IEEE
   numbers the crate's own doc comments quote; the second part ties the limits of the bounded
   integer types to the field widths the property texts and BitFields/Spec.v name, and the
   protocol numbers the specifications mention to the specifications' numerals.  A constant
   that is changed, removed or renamed in the crate breaks this file and with it every Props
   file that imports it (C03, C12, C13, C14, C15, C17). *)
From Coq Require Import NArith.
From EP Require Gen.ConstsAll.
Local Open Scope N_scope.

(* pins for 517 constants *)
Lemma consts_all_0 :
  Gen.ConstsAll.defrag_mod__MAX_IP_DEFRAG_LEN_U16 = 65535 /\
  Gen.ConstsAll.lax_packet_headers__LINK_EXTS_CAP = 3 /\
  Gen.ConstsAll.lax_sliced_packet__LINK_EXTS_CAP = 3 /\
  Gen.ConstsAll.link_ether_type_impl__ARP = 2054 /\
  Gen.ConstsAll.link_ether_type_impl__IPV4 = 2048 /\
  Gen.ConstsAll.link_ether_type_impl__IPV6 = 34525 /\
  Gen.ConstsAll.link_ether_type_impl__MACSEC = 35045 /\
  Gen.ConstsAll.link_ether_type_impl__PROVIDER_BRIDGING = 34984 /\
  Gen.ConstsAll.link_ether_type_impl__VLAN_DOUBLE_TAGGED_FRAME = 37120 /\
  Gen.ConstsAll.link_ether_type_impl__VLAN_TAGGED_FRAME = 33024 /\
  Gen.ConstsAll.link_ether_type_impl__WAKE_ON_LAN = 2114 /\
  Gen.ConstsAll.link_ethernet2_header__LEN = 14 /\
  Gen.ConstsAll.link_linux_nonstandard_ether_type__ALL = 3 /\
  Gen.ConstsAll.link_linux_nonstandard_ether_type__ARCNET = 26 /\
  Gen.ConstsAll.link_linux_nonstandard_ether_type__AX25 = 2 /\
  Gen.ConstsAll.link_linux_nonstandard_ether_type__CAIF = 247 /\
  Gen.ConstsAll.link_linux_nonstandard_ether_type__CAN = 12 /\
  Gen.ConstsAll.link_linux_nonstandard_ether_type__CANFD = 13 /\
  Gen.ConstsAll.link_linux_nonstandard_ether_type__CANXL = 14 /\
  Gen.ConstsAll.link_linux_nonstandard_ether_type__CONTROL = 22 /\
  Gen.ConstsAll.link_linux_nonstandard_ether_type__DDCMP = 6 /\
  Gen.ConstsAll.link_linux_nonstandard_ether_type__DSA = 27 /\
  Gen.ConstsAll.link_linux_nonstandard_ether_type__ECONET = 24 /\
  Gen.ConstsAll.link_linux_nonstandard_ether_type__HDLC = 25 /\
  Gen.ConstsAll.link_linux_nonstandard_ether_type__IEEE802154 = 246 /\
  Gen.ConstsAll.link_linux_nonstandard_ether_type__IRDA = 23 /\
  Gen.ConstsAll.link_linux_nonstandard_ether_type__LOCALTALK = 9 /\
  Gen.ConstsAll.link_linux_nonstandard_ether_type__MAP = 249 /\
  Gen.ConstsAll.link_linux_nonstandard_ether_type__MCTP = 250 /\
  Gen.ConstsAll.link_linux_nonstandard_ether_type__MOBITEX = 21 /\
  Gen.ConstsAll.link_linux_nonstandard_ether_type__N802_2 = 4 /\
  Gen.ConstsAll.link_linux_nonstandard_ether_type__N802_3 = 1 /\
  Gen.ConstsAll.link_linux_nonstandard_ether_type__PHONET = 245 /\
  Gen.ConstsAll.link_linux_nonstandard_ether_type__PPPTALK = 16 /\
  Gen.ConstsAll.link_linux_nonstandard_ether_type__PPP_MP = 8 /\
  Gen.ConstsAll.link_linux_nonstandard_ether_type__SNAP = 5 /\
  Gen.ConstsAll.link_linux_nonstandard_ether_type__TRAILER = 28 /\
  Gen.ConstsAll.link_linux_nonstandard_ether_type__TR_802_2 = 17 /\
  Gen.ConstsAll.link_linux_nonstandard_ether_type__WAN_PPP = 7 /\
  Gen.ConstsAll.link_linux_nonstandard_ether_type__XDSA = 248.
Proof. repeat split; reflexivity. Qed.

Lemma consts_all_1 :
  Gen.ConstsAll.link_linux_sll_header__LEN = 16 /\
  Gen.ConstsAll.link_linux_sll_packet_type__BROADCAST = 1 /\
  Gen.ConstsAll.link_linux_sll_packet_type__HOST = 0 /\
  Gen.ConstsAll.link_linux_sll_packet_type__KERNEL = 7 /\
  Gen.ConstsAll.link_linux_sll_packet_type__LOOPBACK = 5 /\
  Gen.ConstsAll.link_linux_sll_packet_type__MAX_VAL = 7 /\
  Gen.ConstsAll.link_linux_sll_packet_type__MULTICAST = 2 /\
  Gen.ConstsAll.link_linux_sll_packet_type__OTHERHOST = 3 /\
  Gen.ConstsAll.link_linux_sll_packet_type__OUTGOING = 4 /\
  Gen.ConstsAll.link_linux_sll_packet_type__USER = 6 /\
  Gen.ConstsAll.link_macsec_an__MAX_U8 = 3 /\
  Gen.ConstsAll.link_macsec_an__ZERO = 0 /\
  Gen.ConstsAll.link_macsec_header__MAX_LEN = 16 /\
  Gen.ConstsAll.link_macsec_header__MIN_LEN = 6 /\
  Gen.ConstsAll.link_macsec_short_len__MAX_U8 = 63 /\
  Gen.ConstsAll.link_macsec_short_len__MAX_USIZE = 63 /\
  Gen.ConstsAll.link_macsec_short_len__ZERO = 0 /\
  Gen.ConstsAll.link_single_vlan_header__LEN = 4 /\
  Gen.ConstsAll.link_vlan_id__MAX_U16 = 4095 /\
  Gen.ConstsAll.link_vlan_id__ZERO = 0 /\
  Gen.ConstsAll.link_vlan_pcp__MAX_U8 = 7 /\
  Gen.ConstsAll.link_vlan_pcp__ZERO = 0 /\
  Gen.ConstsAll.net_arp_eth_ipv4_packet__LEN = 28 /\
  Gen.ConstsAll.net_arp_hardware_id__ADAPT = 264 /\
  Gen.ConstsAll.net_arp_hardware_id__APPLETLK = 8 /\
  Gen.ConstsAll.net_arp_hardware_id__ARCNET = 7 /\
  Gen.ConstsAll.net_arp_hardware_id__ARPSEC = 30 /\
  Gen.ConstsAll.net_arp_hardware_id__ASH = 781 /\
  Gen.ConstsAll.net_arp_hardware_id__ATM = 19 /\
  Gen.ConstsAll.net_arp_hardware_id__ATM_21 = 21 /\
  Gen.ConstsAll.net_arp_hardware_id__ATM_JXB2 = 16 /\
  Gen.ConstsAll.net_arp_hardware_id__AUTONET_SHORT_ADDRESS = 10 /\
  Gen.ConstsAll.net_arp_hardware_id__AX25 = 3 /\
  Gen.ConstsAll.net_arp_hardware_id__BIF = 775 /\
  Gen.ConstsAll.net_arp_hardware_id__CAI = 33 /\
  Gen.ConstsAll.net_arp_hardware_id__CAIF = 822 /\
  Gen.ConstsAll.net_arp_hardware_id__CAN = 280 /\
  Gen.ConstsAll.net_arp_hardware_id__CHAOS = 5 /\
  Gen.ConstsAll.net_arp_hardware_id__CISCO_HDLC = 513 /\
  Gen.ConstsAll.net_arp_hardware_id__CSLIP = 257.
Proof. repeat split; reflexivity. Qed.

Lemma consts_all_2 :
  Gen.ConstsAll.net_arp_hardware_id__CSLIP6 = 259 /\
  Gen.ConstsAll.net_arp_hardware_id__DDCMP = 517 /\
  Gen.ConstsAll.net_arp_hardware_id__DLCI = 15 /\
  Gen.ConstsAll.net_arp_hardware_id__ECONET = 782 /\
  Gen.ConstsAll.net_arp_hardware_id__EETHER = 2 /\
  Gen.ConstsAll.net_arp_hardware_id__ETHER = 1 /\
  Gen.ConstsAll.net_arp_hardware_id__ETHERNET = 1 /\
  Gen.ConstsAll.net_arp_hardware_id__EUI64 = 27 /\
  Gen.ConstsAll.net_arp_hardware_id__FCAL = 785 /\
  Gen.ConstsAll.net_arp_hardware_id__FCFABRIC = 787 /\
  Gen.ConstsAll.net_arp_hardware_id__FCPL = 786 /\
  Gen.ConstsAll.net_arp_hardware_id__FCPP = 784 /\
  Gen.ConstsAll.net_arp_hardware_id__FDDI = 774 /\
  Gen.ConstsAll.net_arp_hardware_id__FIBRE_CHANNEL = 18 /\
  Gen.ConstsAll.net_arp_hardware_id__FRAD = 770 /\
  Gen.ConstsAll.net_arp_hardware_id__FRAME_RELAY = 15 /\
  Gen.ConstsAll.net_arp_hardware_id__HDLC = 17 /\
  Gen.ConstsAll.net_arp_hardware_id__HFI = 37 /\
  Gen.ConstsAll.net_arp_hardware_id__HIPARP = 28 /\
  Gen.ConstsAll.net_arp_hardware_id__HIPPI = 780 /\
  Gen.ConstsAll.net_arp_hardware_id__HWX25 = 272 /\
  Gen.ConstsAll.net_arp_hardware_id__HW_EXP1 = 36 /\
  Gen.ConstsAll.net_arp_hardware_id__HYPERCHANNEL = 8 /\
  Gen.ConstsAll.net_arp_hardware_id__IEEE1394 = 24 /\
  Gen.ConstsAll.net_arp_hardware_id__IEEE802 = 6 /\
  Gen.ConstsAll.net_arp_hardware_id__IEEE80211 = 801 /\
  Gen.ConstsAll.net_arp_hardware_id__IEEE80211_PRISM = 802 /\
  Gen.ConstsAll.net_arp_hardware_id__IEEE80211_RADIOTAP = 803 /\
  Gen.ConstsAll.net_arp_hardware_id__IEEE802154 = 804 /\
  Gen.ConstsAll.net_arp_hardware_id__IEEE802154_MONITOR = 805 /\
  Gen.ConstsAll.net_arp_hardware_id__IEEE802_TR = 800 /\
  Gen.ConstsAll.net_arp_hardware_id__INFINIBAND = 32 /\
  Gen.ConstsAll.net_arp_hardware_id__IP6GRE = 823 /\
  Gen.ConstsAll.net_arp_hardware_id__IPDDP = 777 /\
  Gen.ConstsAll.net_arp_hardware_id__IPGRE = 778 /\
  Gen.ConstsAll.net_arp_hardware_id__IPSEC_TUNNEL = 31 /\
  Gen.ConstsAll.net_arp_hardware_id__IPV6LOWPAN = 825 /\
  Gen.ConstsAll.net_arp_hardware_id__IP_AND_ARP_OVER_ISO_7816_3 = 29 /\
  Gen.ConstsAll.net_arp_hardware_id__IRDA = 783 /\
  Gen.ConstsAll.net_arp_hardware_id__LANSTAR = 9.
Proof. repeat split; reflexivity. Qed.

Lemma consts_all_3 :
  Gen.ConstsAll.net_arp_hardware_id__LAPB = 516 /\
  Gen.ConstsAll.net_arp_hardware_id__LOCALTLK = 773 /\
  Gen.ConstsAll.net_arp_hardware_id__LOCAL_NET = 12 /\
  Gen.ConstsAll.net_arp_hardware_id__LOCAL_TALK = 11 /\
  Gen.ConstsAll.net_arp_hardware_id__LOOPBACK = 772 /\
  Gen.ConstsAll.net_arp_hardware_id__MAPOS = 25 /\
  Gen.ConstsAll.net_arp_hardware_id__METRICOM = 23 /\
  Gen.ConstsAll.net_arp_hardware_id__MIL_STD_188_220 = 22 /\
  Gen.ConstsAll.net_arp_hardware_id__NETLINK = 824 /\
  Gen.ConstsAll.net_arp_hardware_id__NETROM = 0 /\
  Gen.ConstsAll.net_arp_hardware_id__NONE = 65534 /\
  Gen.ConstsAll.net_arp_hardware_id__PHONET = 820 /\
  Gen.ConstsAll.net_arp_hardware_id__PHONET_PIPE = 821 /\
  Gen.ConstsAll.net_arp_hardware_id__PIMREG = 779 /\
  Gen.ConstsAll.net_arp_hardware_id__PPP = 512 /\
  Gen.ConstsAll.net_arp_hardware_id__PRONET = 4 /\
  Gen.ConstsAll.net_arp_hardware_id__PURE_IP = 35 /\
  Gen.ConstsAll.net_arp_hardware_id__RAWHDLC = 518 /\
  Gen.ConstsAll.net_arp_hardware_id__RAWIP = 519 /\
  Gen.ConstsAll.net_arp_hardware_id__ROSE = 270 /\
  Gen.ConstsAll.net_arp_hardware_id__RSRVD = 260 /\
  Gen.ConstsAll.net_arp_hardware_id__SERIAL_LINE = 20 /\
  Gen.ConstsAll.net_arp_hardware_id__SIT = 776 /\
  Gen.ConstsAll.net_arp_hardware_id__SKIP = 771 /\
  Gen.ConstsAll.net_arp_hardware_id__SLIP = 256 /\
  Gen.ConstsAll.net_arp_hardware_id__SLIP6 = 258 /\
  Gen.ConstsAll.net_arp_hardware_id__SMDS = 14 /\
  Gen.ConstsAll.net_arp_hardware_id__TUNNEL = 768 /\
  Gen.ConstsAll.net_arp_hardware_id__TUNNEL6 = 769 /\
  Gen.ConstsAll.net_arp_hardware_id__TWINAXIAL = 26 /\
  Gen.ConstsAll.net_arp_hardware_id__ULTRA_LINK = 13 /\
  Gen.ConstsAll.net_arp_hardware_id__UNIFIED_BUS = 38 /\
  Gen.ConstsAll.net_arp_hardware_id__VOID = 65535 /\
  Gen.ConstsAll.net_arp_hardware_id__VSOCKMON = 826 /\
  Gen.ConstsAll.net_arp_hardware_id__WIEGAND_INTERFACE = 34 /\
  Gen.ConstsAll.net_arp_hardware_id__X25 = 271 /\
  Gen.ConstsAll.net_arp_operation__REPLY = 2 /\
  Gen.ConstsAll.net_arp_operation__REQUEST = 1 /\
  Gen.ConstsAll.net_arp_packet__MAX_LEN = 1028 /\
  Gen.ConstsAll.net_ip_auth_header__MAX_ICV_LEN = 1016.
Proof. repeat split; reflexivity. Qed.

Lemma consts_all_4 :
  Gen.ConstsAll.net_ip_auth_header__MAX_LEN = 1028 /\
  Gen.ConstsAll.net_ip_auth_header__MIN_LEN = 12 /\
  Gen.ConstsAll.net_ip_dscp__AF11 = 10 /\
  Gen.ConstsAll.net_ip_dscp__AF12 = 12 /\
  Gen.ConstsAll.net_ip_dscp__AF13 = 14 /\
  Gen.ConstsAll.net_ip_dscp__AF21 = 18 /\
  Gen.ConstsAll.net_ip_dscp__AF22 = 20 /\
  Gen.ConstsAll.net_ip_dscp__AF23 = 22 /\
  Gen.ConstsAll.net_ip_dscp__AF31 = 26 /\
  Gen.ConstsAll.net_ip_dscp__AF32 = 28 /\
  Gen.ConstsAll.net_ip_dscp__AF33 = 30 /\
  Gen.ConstsAll.net_ip_dscp__AF41 = 34 /\
  Gen.ConstsAll.net_ip_dscp__AF42 = 36 /\
  Gen.ConstsAll.net_ip_dscp__AF43 = 38 /\
  Gen.ConstsAll.net_ip_dscp__CS0 = 0 /\
  Gen.ConstsAll.net_ip_dscp__CS1 = 8 /\
  Gen.ConstsAll.net_ip_dscp__CS2 = 16 /\
  Gen.ConstsAll.net_ip_dscp__CS3 = 24 /\
  Gen.ConstsAll.net_ip_dscp__CS4 = 32 /\
  Gen.ConstsAll.net_ip_dscp__CS5 = 40 /\
  Gen.ConstsAll.net_ip_dscp__CS6 = 48 /\
  Gen.ConstsAll.net_ip_dscp__CS7 = 56 /\
  Gen.ConstsAll.net_ip_dscp__EF = 46 /\
  Gen.ConstsAll.net_ip_dscp__LOWER_EFFORT = 1 /\
  Gen.ConstsAll.net_ip_dscp__MAX_U8 = 63 /\
  Gen.ConstsAll.net_ip_dscp__VOICE_ADMIT = 44 /\
  Gen.ConstsAll.net_ip_dscp__ZERO = 0 /\
  Gen.ConstsAll.net_ip_ecn__MAX_U8 = 3 /\
  Gen.ConstsAll.net_ip_frag_offset__MAX_U16 = 8191 /\
  Gen.ConstsAll.net_ip_frag_offset__ZERO = 0 /\
  Gen.ConstsAll.net_ip_number_impl__ACTIVE_NETWORKS = 107 /\
  Gen.ConstsAll.net_ip_number_impl__ANY_DISTRIBUTED_FILE_SYSTEM = 68 /\
  Gen.ConstsAll.net_ip_number_impl__ANY_HOST_INTERNAL_PROTOCOL = 61 /\
  Gen.ConstsAll.net_ip_number_impl__ANY_LOCAL_NETWORK = 63 /\
  Gen.ConstsAll.net_ip_number_impl__ANY_ZERO_HOP_PROTOCOL = 114 /\
  Gen.ConstsAll.net_ip_number_impl__ARGUS = 13 /\
  Gen.ConstsAll.net_ip_number_impl__ARIS = 104 /\
  Gen.ConstsAll.net_ip_number_impl__AUTHENTICATION_HEADER = 51 /\
  Gen.ConstsAll.net_ip_number_impl__AX25 = 93 /\
  Gen.ConstsAll.net_ip_number_impl__BBN_RCC_MON = 10.
Proof. repeat split; reflexivity. Qed.

Lemma consts_all_5 :
  Gen.ConstsAll.net_ip_number_impl__BNA = 49 /\
  Gen.ConstsAll.net_ip_number_impl__BR_SAT_MON = 76 /\
  Gen.ConstsAll.net_ip_number_impl__CBT = 7 /\
  Gen.ConstsAll.net_ip_number_impl__CFTP = 62 /\
  Gen.ConstsAll.net_ip_number_impl__CHAOS = 16 /\
  Gen.ConstsAll.net_ip_number_impl__COMPAQ_PEER = 110 /\
  Gen.ConstsAll.net_ip_number_impl__CPHB = 73 /\
  Gen.ConstsAll.net_ip_number_impl__CPNX = 72 /\
  Gen.ConstsAll.net_ip_number_impl__CRTP = 126 /\
  Gen.ConstsAll.net_ip_number_impl__CRUDP = 127 /\
  Gen.ConstsAll.net_ip_number_impl__DCCP = 33 /\
  Gen.ConstsAll.net_ip_number_impl__DCN_MEAS = 19 /\
  Gen.ConstsAll.net_ip_number_impl__DDP = 37 /\
  Gen.ConstsAll.net_ip_number_impl__DDX = 116 /\
  Gen.ConstsAll.net_ip_number_impl__DGP = 86 /\
  Gen.ConstsAll.net_ip_number_impl__DSR = 48 /\
  Gen.ConstsAll.net_ip_number_impl__EGP = 8 /\
  Gen.ConstsAll.net_ip_number_impl__EIGRP = 88 /\
  Gen.ConstsAll.net_ip_number_impl__EMCON = 14 /\
  Gen.ConstsAll.net_ip_number_impl__ENCAP = 98 /\
  Gen.ConstsAll.net_ip_number_impl__ENCAPSULATING_SECURITY_PAYLOAD = 50 /\
  Gen.ConstsAll.net_ip_number_impl__ETHER_IP = 97 /\
  Gen.ConstsAll.net_ip_number_impl__EXPERIMENTAL_AND_TESTING_0 = 253 /\
  Gen.ConstsAll.net_ip_number_impl__EXPERIMENTAL_AND_TESTING_1 = 254 /\
  Gen.ConstsAll.net_ip_number_impl__FC = 133 /\
  Gen.ConstsAll.net_ip_number_impl__FIRE = 125 /\
  Gen.ConstsAll.net_ip_number_impl__GGP = 3 /\
  Gen.ConstsAll.net_ip_number_impl__GMTP = 100 /\
  Gen.ConstsAll.net_ip_number_impl__GRE = 47 /\
  Gen.ConstsAll.net_ip_number_impl__HIP = 139 /\
  Gen.ConstsAll.net_ip_number_impl__HMP = 20 /\
  Gen.ConstsAll.net_ip_number_impl__IATP = 117 /\
  Gen.ConstsAll.net_ip_number_impl__ICMP = 1 /\
  Gen.ConstsAll.net_ip_number_impl__IDPR = 35 /\
  Gen.ConstsAll.net_ip_number_impl__IDPR_CMTP = 38 /\
  Gen.ConstsAll.net_ip_number_impl__IDRP = 45 /\
  Gen.ConstsAll.net_ip_number_impl__IFMP = 101 /\
  Gen.ConstsAll.net_ip_number_impl__IGMP = 2 /\
  Gen.ConstsAll.net_ip_number_impl__IGP = 9 /\
  Gen.ConstsAll.net_ip_number_impl__IL = 40.
Proof. repeat split; reflexivity. Qed.

Lemma consts_all_6 :
  Gen.ConstsAll.net_ip_number_impl__INLSP = 52 /\
  Gen.ConstsAll.net_ip_number_impl__IPCV = 71 /\
  Gen.ConstsAll.net_ip_number_impl__IPIP = 94 /\
  Gen.ConstsAll.net_ip_number_impl__IPLT = 129 /\
  Gen.ConstsAll.net_ip_number_impl__IPPC = 67 /\
  Gen.ConstsAll.net_ip_number_impl__IPV4 = 4 /\
  Gen.ConstsAll.net_ip_number_impl__IPV6 = 41 /\
  Gen.ConstsAll.net_ip_number_impl__IPV6_DESTINATION_OPTIONS = 60 /\
  Gen.ConstsAll.net_ip_number_impl__IPV6_FRAGMENTATION_HEADER = 44 /\
  Gen.ConstsAll.net_ip_number_impl__IPV6_HEADER_HOP_BY_HOP = 0 /\
  Gen.ConstsAll.net_ip_number_impl__IPV6_ICMP = 58 /\
  Gen.ConstsAll.net_ip_number_impl__IPV6_NO_NEXT_HEADER = 59 /\
  Gen.ConstsAll.net_ip_number_impl__IPV6_ROUTE_HEADER = 43 /\
  Gen.ConstsAll.net_ip_number_impl__IPX_IN_IP = 111 /\
  Gen.ConstsAll.net_ip_number_impl__IP_COMP = 108 /\
  Gen.ConstsAll.net_ip_number_impl__IRTP = 28 /\
  Gen.ConstsAll.net_ip_number_impl__ISIS_OVER_IPV4 = 124 /\
  Gen.ConstsAll.net_ip_number_impl__ISO_IP = 80 /\
  Gen.ConstsAll.net_ip_number_impl__ISO_TP4 = 29 /\
  Gen.ConstsAll.net_ip_number_impl__KRYTOLAN = 65 /\
  Gen.ConstsAll.net_ip_number_impl__LARP = 91 /\
  Gen.ConstsAll.net_ip_number_impl__LAYER2_TUNNELING_PROTOCOL = 115 /\
  Gen.ConstsAll.net_ip_number_impl__LEAF1 = 25 /\
  Gen.ConstsAll.net_ip_number_impl__LEAF2 = 26 /\
  Gen.ConstsAll.net_ip_number_impl__MANET = 138 /\
  Gen.ConstsAll.net_ip_number_impl__MERIT_INP = 32 /\
  Gen.ConstsAll.net_ip_number_impl__MFE_NSP = 31 /\
  Gen.ConstsAll.net_ip_number_impl__MICP = 95 /\
  Gen.ConstsAll.net_ip_number_impl__MOBILE = 55 /\
  Gen.ConstsAll.net_ip_number_impl__MOBILITY_HEADER = 135 /\
  Gen.ConstsAll.net_ip_number_impl__MPLS_IN_IP = 137 /\
  Gen.ConstsAll.net_ip_number_impl__MTP = 92 /\
  Gen.ConstsAll.net_ip_number_impl__MUX = 18 /\
  Gen.ConstsAll.net_ip_number_impl__NARP = 54 /\
  Gen.ConstsAll.net_ip_number_impl__NET_BLT = 30 /\
  Gen.ConstsAll.net_ip_number_impl__NSFNET_IGP = 85 /\
  Gen.ConstsAll.net_ip_number_impl__NVP_II = 11 /\
  Gen.ConstsAll.net_ip_number_impl__OSPFIGP = 89 /\
  Gen.ConstsAll.net_ip_number_impl__PGM = 113 /\
  Gen.ConstsAll.net_ip_number_impl__PIM = 103.
Proof. repeat split; reflexivity. Qed.

Lemma consts_all_7 :
  Gen.ConstsAll.net_ip_number_impl__PIPE = 131 /\
  Gen.ConstsAll.net_ip_number_impl__PNNI = 102 /\
  Gen.ConstsAll.net_ip_number_impl__PRM = 21 /\
  Gen.ConstsAll.net_ip_number_impl__PTP = 123 /\
  Gen.ConstsAll.net_ip_number_impl__PUP = 12 /\
  Gen.ConstsAll.net_ip_number_impl__PVP = 75 /\
  Gen.ConstsAll.net_ip_number_impl__QNX = 106 /\
  Gen.ConstsAll.net_ip_number_impl__RDP = 27 /\
  Gen.ConstsAll.net_ip_number_impl__ROHC = 142 /\
  Gen.ConstsAll.net_ip_number_impl__RSVP = 46 /\
  Gen.ConstsAll.net_ip_number_impl__RSVP_E2E_IGNORE = 134 /\
  Gen.ConstsAll.net_ip_number_impl__RVD = 66 /\
  Gen.ConstsAll.net_ip_number_impl__SAT_EXPAK = 64 /\
  Gen.ConstsAll.net_ip_number_impl__SAT_MON = 69 /\
  Gen.ConstsAll.net_ip_number_impl__SCC_SP = 96 /\
  Gen.ConstsAll.net_ip_number_impl__SCPS = 105 /\
  Gen.ConstsAll.net_ip_number_impl__SCTP = 132 /\
  Gen.ConstsAll.net_ip_number_impl__SDRP = 42 /\
  Gen.ConstsAll.net_ip_number_impl__SECURE_VMTP = 82 /\
  Gen.ConstsAll.net_ip_number_impl__SHIM6 = 140 /\
  Gen.ConstsAll.net_ip_number_impl__SIMPLE_MESSAGE_PROTOCOL = 121 /\
  Gen.ConstsAll.net_ip_number_impl__SITRA_NETWORKS_PROTOCOL = 109 /\
  Gen.ConstsAll.net_ip_number_impl__SKIP = 57 /\
  Gen.ConstsAll.net_ip_number_impl__SM = 122 /\
  Gen.ConstsAll.net_ip_number_impl__SPRITE_RPC = 90 /\
  Gen.ConstsAll.net_ip_number_impl__SPS = 130 /\
  Gen.ConstsAll.net_ip_number_impl__SRP = 119 /\
  Gen.ConstsAll.net_ip_number_impl__SSCOPMCE = 128 /\
  Gen.ConstsAll.net_ip_number_impl__STP = 118 /\
  Gen.ConstsAll.net_ip_number_impl__STREAM = 5 /\
  Gen.ConstsAll.net_ip_number_impl__SUN_ND = 77 /\
  Gen.ConstsAll.net_ip_number_impl__SWIPE = 53 /\
  Gen.ConstsAll.net_ip_number_impl__TCF = 87 /\
  Gen.ConstsAll.net_ip_number_impl__TCP = 6 /\
  Gen.ConstsAll.net_ip_number_impl__THIRD_PARTY_CONNECT_PROTOCOL = 34 /\
  Gen.ConstsAll.net_ip_number_impl__TLSP = 56 /\
  Gen.ConstsAll.net_ip_number_impl__TP_PLUS_PLUS = 39 /\
  Gen.ConstsAll.net_ip_number_impl__TRUNK1 = 23 /\
  Gen.ConstsAll.net_ip_number_impl__TRUNK2 = 24 /\
  Gen.ConstsAll.net_ip_number_impl__TTP_OR_IPTM = 84.
Proof. repeat split; reflexivity. Qed.

Lemma consts_all_8 :
  Gen.ConstsAll.net_ip_number_impl__UDP = 17 /\
  Gen.ConstsAll.net_ip_number_impl__UDP_LITE = 136 /\
  Gen.ConstsAll.net_ip_number_impl__UTI = 120 /\
  Gen.ConstsAll.net_ip_number_impl__VINES = 83 /\
  Gen.ConstsAll.net_ip_number_impl__VISA = 70 /\
  Gen.ConstsAll.net_ip_number_impl__VMTP = 81 /\
  Gen.ConstsAll.net_ip_number_impl__VRRP = 112 /\
  Gen.ConstsAll.net_ip_number_impl__WB_EXPAK = 79 /\
  Gen.ConstsAll.net_ip_number_impl__WB_MON = 78 /\
  Gen.ConstsAll.net_ip_number_impl__WESP = 141 /\
  Gen.ConstsAll.net_ip_number_impl__WSN = 74 /\
  Gen.ConstsAll.net_ip_number_impl__XNET = 15 /\
  Gen.ConstsAll.net_ip_number_impl__XNS_IDP = 22 /\
  Gen.ConstsAll.net_ip_number_impl__XTP = 36 /\
  Gen.ConstsAll.net_ipv4_exts__MIN_LEN = 0 /\
  Gen.ConstsAll.net_ipv4_header__MAX_LEN = 60 /\
  Gen.ConstsAll.net_ipv4_header__MIN_LEN = 20 /\
  Gen.ConstsAll.net_ipv4_header__MIN_LEN_U16 = 20 /\
  Gen.ConstsAll.net_ipv4_options__MAX_LEN = 40 /\
  Gen.ConstsAll.net_ipv6_exts__MIN_LEN = 0 /\
  Gen.ConstsAll.net_ipv6_flow_label__MAX_U32 = 1048575 /\
  Gen.ConstsAll.net_ipv6_flow_label__ZERO = 0 /\
  Gen.ConstsAll.net_ipv6_fragment_header__LEN = 8 /\
  Gen.ConstsAll.net_ipv6_header__LEN = 40 /\
  Gen.ConstsAll.net_ipv6_raw_ext_header__MAX_LEN = 2048 /\
  Gen.ConstsAll.net_ipv6_raw_ext_header__MAX_PAYLOAD_LEN = 2046 /\
  Gen.ConstsAll.net_ipv6_raw_ext_header__MIN_LEN = 8 /\
  Gen.ConstsAll.net_ipv6_raw_ext_header__MIN_PAYLOAD_LEN = 6 /\
  Gen.ConstsAll.packet_headers__LINK_EXTS_CAP = 3 /\
  Gen.ConstsAll.sliced_packet__LINK_EXTS_CAP = 3 /\
  Gen.ConstsAll.transport_icmp_echo_header__LEN = 4 /\
  Gen.ConstsAll.transport_icmpv4_header__MAX_LEN = 20 /\
  Gen.ConstsAll.transport_icmpv4_header__MAX_SERIALIZED_SIZE = 20 /\
  Gen.ConstsAll.transport_icmpv4_header__MIN_LEN = 8 /\
  Gen.ConstsAll.transport_icmpv4_header__MIN_SERIALIZED_SIZE = 8 /\
  Gen.ConstsAll.transport_icmpv4_mod__CODE_DST_UNREACH_FILTER_PROHIB = 13 /\
  Gen.ConstsAll.transport_icmpv4_mod__CODE_DST_UNREACH_HOST = 1 /\
  Gen.ConstsAll.transport_icmpv4_mod__CODE_DST_UNREACH_HOST_PRECEDENCE_VIOLATION = 14 /\
  Gen.ConstsAll.transport_icmpv4_mod__CODE_DST_UNREACH_HOST_PROHIB = 10 /\
  Gen.ConstsAll.transport_icmpv4_mod__CODE_DST_UNREACH_HOST_UNKNOWN = 7.
Proof. repeat split; reflexivity. Qed.

Lemma consts_all_9 :
  Gen.ConstsAll.transport_icmpv4_mod__CODE_DST_UNREACH_ISOLATED = 8 /\
  Gen.ConstsAll.transport_icmpv4_mod__CODE_DST_UNREACH_NEED_FRAG = 4 /\
  Gen.ConstsAll.transport_icmpv4_mod__CODE_DST_UNREACH_NET = 0 /\
  Gen.ConstsAll.transport_icmpv4_mod__CODE_DST_UNREACH_NET_PROHIB = 9 /\
  Gen.ConstsAll.transport_icmpv4_mod__CODE_DST_UNREACH_NET_UNKNOWN = 6 /\
  Gen.ConstsAll.transport_icmpv4_mod__CODE_DST_UNREACH_PORT = 3 /\
  Gen.ConstsAll.transport_icmpv4_mod__CODE_DST_UNREACH_PRECEDENCE_CUTOFF = 15 /\
  Gen.ConstsAll.transport_icmpv4_mod__CODE_DST_UNREACH_PROTOCOL = 2 /\
  Gen.ConstsAll.transport_icmpv4_mod__CODE_DST_UNREACH_SOURCE_ROUTE_FAILED = 5 /\
  Gen.ConstsAll.transport_icmpv4_mod__CODE_DST_UNREACH_TOS_HOST = 12 /\
  Gen.ConstsAll.transport_icmpv4_mod__CODE_DST_UNREACH_TOS_NET = 11 /\
  Gen.ConstsAll.transport_icmpv4_mod__CODE_PARAMETER_PROBLEM_BAD_LENGTH = 2 /\
  Gen.ConstsAll.transport_icmpv4_mod__CODE_PARAMETER_PROBLEM_MISSING_REQUIRED_OPTION = 1 /\
  Gen.ConstsAll.transport_icmpv4_mod__CODE_PARAMETER_PROBLEM_POINTER_INDICATES_ERROR = 0 /\
  Gen.ConstsAll.transport_icmpv4_mod__CODE_REDIRECT_FOR_HOST = 1 /\
  Gen.ConstsAll.transport_icmpv4_mod__CODE_REDIRECT_FOR_NETWORK = 0 /\
  Gen.ConstsAll.transport_icmpv4_mod__CODE_REDIRECT_TYPE_OF_SERVICE_AND_HOST = 3 /\
  Gen.ConstsAll.transport_icmpv4_mod__CODE_REDIRECT_TYPE_OF_SERVICE_AND_NETWORK = 2 /\
  Gen.ConstsAll.transport_icmpv4_mod__CODE_TIME_EXCEEDED_FRAG_REASSEMBLY_TIME_EXCEEDED = 1 /\
  Gen.ConstsAll.transport_icmpv4_mod__CODE_TIME_EXCEEDED_TTL_EXCEEDED_IN_TRANSIT = 0 /\
  Gen.ConstsAll.transport_icmpv4_mod__TYPE_ADDRESS = 17 /\
  Gen.ConstsAll.transport_icmpv4_mod__TYPE_ADDRESSREPLY = 18 /\
  Gen.ConstsAll.transport_icmpv4_mod__TYPE_ALTERNATE_HOST_ADDRESS = 6 /\
  Gen.ConstsAll.transport_icmpv4_mod__TYPE_DEST_UNREACH = 3 /\
  Gen.ConstsAll.transport_icmpv4_mod__TYPE_ECHO_REPLY = 0 /\
  Gen.ConstsAll.transport_icmpv4_mod__TYPE_ECHO_REQUEST = 8 /\
  Gen.ConstsAll.transport_icmpv4_mod__TYPE_INFO_REPLY = 16 /\
  Gen.ConstsAll.transport_icmpv4_mod__TYPE_INFO_REQUEST = 15 /\
  Gen.ConstsAll.transport_icmpv4_mod__TYPE_PARAMETER_PROBLEM = 12 /\
  Gen.ConstsAll.transport_icmpv4_mod__TYPE_REDIRECT = 5 /\
  Gen.ConstsAll.transport_icmpv4_mod__TYPE_ROUTER_ADVERTISEMENT = 9 /\
  Gen.ConstsAll.transport_icmpv4_mod__TYPE_ROUTER_SOLICITATION = 10 /\
  Gen.ConstsAll.transport_icmpv4_mod__TYPE_SOURCE_QUENCH = 4 /\
  Gen.ConstsAll.transport_icmpv4_mod__TYPE_TIMESTAMP = 13 /\
  Gen.ConstsAll.transport_icmpv4_mod__TYPE_TIMESTAMP_REPLY = 14 /\
  Gen.ConstsAll.transport_icmpv4_mod__TYPE_TIME_EXCEEDED = 11 /\
  Gen.ConstsAll.transport_icmpv4_timestamp_message__LEN = 20 /\
  Gen.ConstsAll.transport_icmpv4_timestamp_message__SERIALIZED_SIZE = 20 /\
  Gen.ConstsAll.transport_icmpv6_header__MAX_LEN = 40 /\
  Gen.ConstsAll.transport_icmpv6_header__MIN_LEN = 8.
Proof. repeat split; reflexivity. Qed.

Lemma consts_all_10 :
  Gen.ConstsAll.transport_icmpv6_icmpv6_payload_neighbor_advertisement_payload__LEN = 16 /\
  Gen.ConstsAll.transport_icmpv6_icmpv6_payload_neighbor_solicitation_payload__LEN = 16 /\
  Gen.ConstsAll.transport_icmpv6_icmpv6_payload_redirect_payload__LEN = 32 /\
  Gen.ConstsAll.transport_icmpv6_icmpv6_payload_router_advertisement_payload__LEN = 8 /\
  Gen.ConstsAll.transport_icmpv6_icmpv6_payload_router_solicitation_payload__LEN = 0 /\
  Gen.ConstsAll.transport_icmpv6_mod__CODE_DST_UNREACH_ADDR = 3 /\
  Gen.ConstsAll.transport_icmpv6_mod__CODE_DST_UNREACH_BEYOND_SCOPE = 2 /\
  Gen.ConstsAll.transport_icmpv6_mod__CODE_DST_UNREACH_NO_ROUTE = 0 /\
  Gen.ConstsAll.transport_icmpv6_mod__CODE_DST_UNREACH_PORT = 4 /\
  Gen.ConstsAll.transport_icmpv6_mod__CODE_DST_UNREACH_PROHIBITED = 1 /\
  Gen.ConstsAll.transport_icmpv6_mod__CODE_DST_UNREACH_REJECT_ROUTE_TO_DEST = 6 /\
  Gen.ConstsAll.transport_icmpv6_mod__CODE_DST_UNREACH_SOURCE_ADDRESS_FAILED_POLICY = 5 /\
  Gen.ConstsAll.transport_icmpv6_mod__CODE_PARAM_PROBLEM_ERR_HEADER_FIELD = 0 /\
  Gen.ConstsAll.transport_icmpv6_mod__CODE_PARAM_PROBLEM_EXT_HEADER_CHAIN_TOO_LONG = 7 /\
  Gen.ConstsAll.transport_icmpv6_mod__CODE_PARAM_PROBLEM_EXT_HEADER_TOO_BIG = 6 /\
  Gen.ConstsAll.transport_icmpv6_mod__CODE_PARAM_PROBLEM_IPV6_FIRST_FRAG_INCOMP_HEADER_CHAIN = 3 /\
  Gen.ConstsAll.transport_icmpv6_mod__CODE_PARAM_PROBLEM_OPTION_TOO_BIG = 10 /\
  Gen.ConstsAll.transport_icmpv6_mod__CODE_PARAM_PROBLEM_SR_UPPER_LAYER_HEADER_ERROR = 4 /\
  Gen.ConstsAll.transport_icmpv6_mod__CODE_PARAM_PROBLEM_TOO_MANY_EXT_HEADERS = 8 /\
  Gen.ConstsAll.transport_icmpv6_mod__CODE_PARAM_PROBLEM_TOO_MANY_OPTIONS_EXT_HEADER = 9 /\
  Gen.ConstsAll.transport_icmpv6_mod__CODE_PARAM_PROBLEM_UNRECOG_IPV6_OPTION = 2 /\
  Gen.ConstsAll.transport_icmpv6_mod__CODE_PARAM_PROBLEM_UNRECOG_NEXT_HEADER = 1 /\
  Gen.ConstsAll.transport_icmpv6_mod__CODE_PARAM_PROBLEM_UNRECOG_NEXT_HEADER_BY_INTERMEDIATE_NODE = 5 /\
  Gen.ConstsAll.transport_icmpv6_mod__CODE_TIME_EXCEEDED_FRAGMENT_REASSEMBLY_TIME_EXCEEDED = 1 /\
  Gen.ConstsAll.transport_icmpv6_mod__CODE_TIME_EXCEEDED_HOP_LIMIT_EXCEEDED = 0 /\
  Gen.ConstsAll.transport_icmpv6_mod__MAX_ICMPV6_BYTE_LEN = 4294967295 /\
  Gen.ConstsAll.transport_icmpv6_mod__TYPE_DST_UNREACH = 1 /\
  Gen.ConstsAll.transport_icmpv6_mod__TYPE_ECHO_REPLY = 129 /\
  Gen.ConstsAll.transport_icmpv6_mod__TYPE_ECHO_REQUEST = 128 /\
  Gen.ConstsAll.transport_icmpv6_mod__TYPE_EXT_ECHO_REPLY = 161 /\
  Gen.ConstsAll.transport_icmpv6_mod__TYPE_EXT_ECHO_REQUEST = 160 /\
  Gen.ConstsAll.transport_icmpv6_mod__TYPE_INVERSE_NEIGHBOR_DISCOVERY_ADVERTISEMENT = 142 /\
  Gen.ConstsAll.transport_icmpv6_mod__TYPE_INVERSE_NEIGHBOR_DISCOVERY_SOLICITATION = 141 /\
  Gen.ConstsAll.transport_icmpv6_mod__TYPE_MULTICAST_LISTENER_QUERY = 130 /\
  Gen.ConstsAll.transport_icmpv6_mod__TYPE_MULTICAST_LISTENER_REDUCTION = 132 /\
  Gen.ConstsAll.transport_icmpv6_mod__TYPE_MULTICAST_LISTENER_REPORT = 131 /\
  Gen.ConstsAll.transport_icmpv6_mod__TYPE_NEIGHBOR_ADVERTISEMENT = 136 /\
  Gen.ConstsAll.transport_icmpv6_mod__TYPE_NEIGHBOR_SOLICITATION = 135 /\
  Gen.ConstsAll.transport_icmpv6_mod__TYPE_PACKET_TOO_BIG = 2 /\
  Gen.ConstsAll.transport_icmpv6_mod__TYPE_PARAMETER_PROBLEM = 4.
Proof. repeat split; reflexivity. Qed.

Lemma consts_all_11 :
  Gen.ConstsAll.transport_icmpv6_mod__TYPE_REDIRECT_MESSAGE = 137 /\
  Gen.ConstsAll.transport_icmpv6_mod__TYPE_ROUTER_ADVERTISEMENT = 134 /\
  Gen.ConstsAll.transport_icmpv6_mod__TYPE_ROUTER_RENUMBERING = 138 /\
  Gen.ConstsAll.transport_icmpv6_mod__TYPE_ROUTER_SOLICITATION = 133 /\
  Gen.ConstsAll.transport_icmpv6_mod__TYPE_TIME_EXCEEDED = 3 /\
  Gen.ConstsAll.transport_icmpv6_ndp_option_mtu_option_slice__LEN = 8 /\
  Gen.ConstsAll.transport_icmpv6_ndp_option_prefix_information__AUTONOMOUS_ADDRESS_CONFIGURATION_MASK = 64 /\
  Gen.ConstsAll.transport_icmpv6_ndp_option_prefix_information__LEN = 32 /\
  Gen.ConstsAll.transport_icmpv6_ndp_option_prefix_information__ON_LINK_MASK = 128 /\
  Gen.ConstsAll.transport_icmpv6_ndp_option_type_impl__MTU = 5 /\
  Gen.ConstsAll.transport_icmpv6_ndp_option_type_impl__PREFIX_INFORMATION = 3 /\
  Gen.ConstsAll.transport_icmpv6_ndp_option_type_impl__REDIRECTED_HEADER = 4 /\
  Gen.ConstsAll.transport_icmpv6_ndp_option_type_impl__SOURCE_LINK_LAYER_ADDRESS = 1 /\
  Gen.ConstsAll.transport_icmpv6_ndp_option_type_impl__TARGET_LINK_LAYER_ADDRESS = 2 /\
  Gen.ConstsAll.transport_icmpv6_neighbor_advertisement_header__OVERRIDE_MASK = 32 /\
  Gen.ConstsAll.transport_icmpv6_neighbor_advertisement_header__ROUTER_MASK = 128 /\
  Gen.ConstsAll.transport_icmpv6_neighbor_advertisement_header__SOLICITED_MASK = 64 /\
  Gen.ConstsAll.transport_icmpv6_router_advertisement_header__MANAGED_ADDRESS_CONFIG_MASK = 128 /\
  Gen.ConstsAll.transport_icmpv6_router_advertisement_header__OTHER_CONFIG_MASK = 64 /\
  Gen.ConstsAll.transport_igmp_header__MAX_LEN = 12 /\
  Gen.ConstsAll.transport_igmp_header__MIN_LEN = 8 /\
  Gen.ConstsAll.transport_igmp_leave_group_type__LEN = 8 /\
  Gen.ConstsAll.transport_igmp_membership_query_type__LEN = 8 /\
  Gen.ConstsAll.transport_igmp_membership_query_with_sources_header__LEN = 12 /\
  Gen.ConstsAll.transport_igmp_membership_query_with_sources_header__RAW_BYTE_8_MASK_FLAGS = 240 /\
  Gen.ConstsAll.transport_igmp_membership_query_with_sources_header__RAW_BYTE_8_MASK_QRV = 7 /\
  Gen.ConstsAll.transport_igmp_membership_query_with_sources_header__RAW_BYTE_8_MASK_S_FLAG = 8 /\
  Gen.ConstsAll.transport_igmp_membership_query_with_sources_header__RAW_BYTE_8_OFFSET_FLAGS = 4 /\
  Gen.ConstsAll.transport_igmp_membership_report_v1_type__LEN = 8 /\
  Gen.ConstsAll.transport_igmp_membership_report_v2_type__LEN = 8 /\
  Gen.ConstsAll.transport_igmp_membership_report_v3_header__FLAGS_0_EXTENSION_MASK = 1 /\
  Gen.ConstsAll.transport_igmp_membership_report_v3_header__LEN = 8 /\
  Gen.ConstsAll.transport_igmp_mod__IGMPV1_TYPE_MEMBERSHIP_REPORT = 18 /\
  Gen.ConstsAll.transport_igmp_mod__IGMPV2_TYPE_LEAVE_GROUP = 23 /\
  Gen.ConstsAll.transport_igmp_mod__IGMPV2_TYPE_MEMBERSHIP_REPORT = 22 /\
  Gen.ConstsAll.transport_igmp_mod__IGMPV3_TYPE_MEMBERSHIP_REPORT = 34 /\
  Gen.ConstsAll.transport_igmp_mod__IGMP_TYPE_MEMBERSHIP_QUERY = 17 /\
  Gen.ConstsAll.transport_igmp_qrv__MAX_U8 = 7 /\
  Gen.ConstsAll.transport_igmp_qrv__ZERO = 0 /\
  Gen.ConstsAll.transport_igmp_report_group_record_type__ALLOW_NEW_SOURCES = 5.
Proof. repeat split; reflexivity. Qed.

Lemma consts_all_12 :
  Gen.ConstsAll.transport_igmp_report_group_record_type__BLOCK_OLD_SOURCES = 6 /\
  Gen.ConstsAll.transport_igmp_report_group_record_type__CHANGE_TO_EXCLUDE_MODE = 4 /\
  Gen.ConstsAll.transport_igmp_report_group_record_type__CHANGE_TO_INCLUDE_MODE = 3 /\
  Gen.ConstsAll.transport_igmp_report_group_record_type__MODE_IS_EXCLUDE = 2 /\
  Gen.ConstsAll.transport_igmp_report_group_record_type__MODE_IS_INCLUDE = 1 /\
  Gen.ConstsAll.transport_igmp_report_group_record_v3_header__LEN = 8 /\
  Gen.ConstsAll.transport_igmp_unknown_header__LEN = 8 /\
  Gen.ConstsAll.transport_tcp_header__MAX_DATA_OFFSET = 15 /\
  Gen.ConstsAll.transport_tcp_header__MAX_LEN = 60 /\
  Gen.ConstsAll.transport_tcp_header__MIN_DATA_OFFSET = 5 /\
  Gen.ConstsAll.transport_tcp_header__MIN_LEN = 20 /\
  Gen.ConstsAll.transport_tcp_header__TCP_MAXIMUM_DATA_OFFSET = 15 /\
  Gen.ConstsAll.transport_tcp_header__TCP_MINIMUM_DATA_OFFSET = 5 /\
  Gen.ConstsAll.transport_tcp_header__TCP_MINIMUM_HEADER_SIZE = 20 /\
  Gen.ConstsAll.transport_tcp_option_impl__KIND_END = 0 /\
  Gen.ConstsAll.transport_tcp_option_impl__KIND_MAXIMUM_SEGMENT_SIZE = 2 /\
  Gen.ConstsAll.transport_tcp_option_impl__KIND_NOOP = 1 /\
  Gen.ConstsAll.transport_tcp_option_impl__KIND_SELECTIVE_ACK = 5 /\
  Gen.ConstsAll.transport_tcp_option_impl__KIND_SELECTIVE_ACK_PERMITTED = 4 /\
  Gen.ConstsAll.transport_tcp_option_impl__KIND_TIMESTAMP = 8 /\
  Gen.ConstsAll.transport_tcp_option_impl__KIND_WINDOW_SCALE = 3 /\
  Gen.ConstsAll.transport_tcp_option_impl__LEN_END = 1 /\
  Gen.ConstsAll.transport_tcp_option_impl__LEN_MAXIMUM_SEGMENT_SIZE = 4 /\
  Gen.ConstsAll.transport_tcp_option_impl__LEN_NOOP = 1 /\
  Gen.ConstsAll.transport_tcp_option_impl__LEN_SELECTIVE_ACK_PERMITTED = 2 /\
  Gen.ConstsAll.transport_tcp_option_impl__LEN_TIMESTAMP = 10 /\
  Gen.ConstsAll.transport_tcp_option_impl__LEN_WINDOW_SCALE = 3 /\
  Gen.ConstsAll.transport_tcp_option_impl__TCP_OPTION_ID_END = 0 /\
  Gen.ConstsAll.transport_tcp_option_impl__TCP_OPTION_ID_MAXIMUM_SEGMENT_SIZE = 2 /\
  Gen.ConstsAll.transport_tcp_option_impl__TCP_OPTION_ID_NOP = 1 /\
  Gen.ConstsAll.transport_tcp_option_impl__TCP_OPTION_ID_SELECTIVE_ACK = 5 /\
  Gen.ConstsAll.transport_tcp_option_impl__TCP_OPTION_ID_SELECTIVE_ACK_PERMITTED = 4 /\
  Gen.ConstsAll.transport_tcp_option_impl__TCP_OPTION_ID_TIMESTAMP = 8 /\
  Gen.ConstsAll.transport_tcp_option_impl__TCP_OPTION_ID_WINDOW_SCALE = 3 /\
  Gen.ConstsAll.transport_tcp_options__MAX_LEN = 40 /\
  Gen.ConstsAll.transport_udp_header__LEN = 8 /\
  Gen.ConstsAll.transport_udp_header__LEN_U16 = 8.
Proof. repeat split; reflexivity. Qed.

(* field widths (property C15 / C14 texts; BitFields/Spec.v, Limits/Spec.v) *)
Lemma consts_all_widths :
  Gen.ConstsAll.link_vlan_id__MAX_U16 = 2 ^ 12 - 1 /\
  Gen.ConstsAll.link_vlan_pcp__MAX_U8 = 2 ^ 3 - 1 /\
  Gen.ConstsAll.net_ip_dscp__MAX_U8 = 2 ^ 6 - 1 /\
  Gen.ConstsAll.net_ip_ecn__MAX_U8 = 2 ^ 2 - 1 /\
  Gen.ConstsAll.net_ip_frag_offset__MAX_U16 = 2 ^ 13 - 1 /\
  Gen.ConstsAll.net_ipv6_flow_label__MAX_U32 = 2 ^ 20 - 1 /\
  Gen.ConstsAll.link_macsec_an__MAX_U8 = 2 ^ 2 - 1 /\
  Gen.ConstsAll.link_macsec_short_len__MAX_U8 = 2 ^ 6 - 1 /\
  Gen.ConstsAll.link_macsec_short_len__MAX_USIZE = 2 ^ 6 - 1 /\
  Gen.ConstsAll.defrag_mod__MAX_IP_DEFRAG_LEN_U16 = 2 ^ 16 - 1 /\
  (* IPv4: IHL is 4 bits of 32-bit words; TCP data offset likewise *)
  Gen.ConstsAll.net_ipv4_header__MAX_LEN = (2 ^ 4 - 1) * 4 /\
  Gen.ConstsAll.net_ipv4_options__MAX_LEN = (2 ^ 4 - 1) * 4 - 20 /\
  Gen.ConstsAll.transport_tcp_header__MAX_LEN = (2 ^ 4 - 1) * 4 /\
  (* AH: payload length octet counts 32-bit words minus 2; generic extension header:
     length octet counts 8-octet units beyond the first *)
  Gen.ConstsAll.net_ip_auth_header__MAX_LEN = (2 ^ 8 - 1 + 2) * 4 /\
  Gen.ConstsAll.net_ip_auth_header__MAX_ICV_LEN = (2 ^ 8 - 1 + 2) * 4 - 12 /\
  Gen.ConstsAll.net_ipv6_raw_ext_header__MAX_LEN = (2 ^ 8 - 1 + 1) * 8 /\
  Gen.ConstsAll.net_ipv6_raw_ext_header__MAX_PAYLOAD_LEN = (2 ^ 8 - 1 + 1) * 8 - 2.
Proof. repeat split; reflexivity. Qed.

Lemma consts_all_ok : True.
Proof. exact I. Qed.
