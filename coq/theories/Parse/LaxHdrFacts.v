(* Parse/LaxHdrFacts.v -- (c) for the lax header-struct family (LaxPacketHeaders, model
   Parse/HdrLaxModel.v of the C04 check): Err exactly when the very first header is
   undecodable; behind it every fault is kept inside an Ok result. *)
From EP Require Import Base.Bytes Parse.Types Parse.Slices Parse.Cursor Parse.View Parse.WireSpec Parse.Repr
  Parse.StrictProofs Parse.LaxSlices Parse.LaxCursor Parse.LaxView Parse.LaxProofs Parse.LaxFacts
  Parse.HdrModel Parse.HdrLaxModel.
From Coq Require Import ZArith Lia ZifyN ZifyBool.
Local Open Scope N_scope.

Lemma ne_idx s k : no_err (idx_from s k).
Proof. unfold idx_from. ne. Qed.
#[export] Hint Resolve ne_idx : ne.

(* the lax struct decoders behind the first header *)
Lemma ne_auth_to_header s : no_err (auth_to_header s).
Proof. unfold auth_to_header. ne. Qed.
Lemma ne_raw_to_header s : no_err (raw_ext_to_header s).
Proof. unfold raw_ext_to_header. ne. Qed.
#[export] Hint Resolve ne_auth_to_header ne_raw_to_header : ne.

Lemma ne_hexts4 nh s : no_err (LaxIpv4Extensions.from_slice_lax nh s).
Proof. unfold LaxIpv4Extensions.from_slice_lax. ne. Qed.

Lemma ne_hexts6_loop fuel : forall slice result rest nh,
  no_err (LaxIpv6Extensions.loop fuel slice result rest nh).
Proof.
  induction fuel as [|f IH]; intros slice result rest nh; cbn [LaxIpv6Extensions.loop]; [apply ne_bug|].
  unfold LaxIpv6Extensions.raw_ok, LaxIpv6Extensions.len_stop, IpAuthHeaderSlice.next_header,
    Ipv6RawExtHeaderSlice.next_header, Ipv6FragmentHeaderSlice.next_header.
  ne.
Qed.
#[export] Hint Resolve ne_hexts4 ne_hexts6_loop : ne.

Lemma ne_hexts6 nh s : no_err (LaxIpv6Extensions.from_slice_lax nh s).
Proof.
  unfold LaxIpv6Extensions.from_slice_lax, LaxIpv6Extensions.raw_ok, Ipv6RawExtHeaderSlice.next_header.
  ne.
Qed.

Lemma ne_frag6 x : no_err (Ipv6Extensions.is_fragmenting_payload x).
Proof.
  unfold Ipv6Extensions.is_fragmenting_payload, Ipv6FragmentHeaderSlice.is_fragmenting_payload,
    Ipv6FragmentHeaderSlice.more_fragments, Ipv6FragmentHeaderSlice.fragment_offset. ne.
Qed.

Lemma ne_add_transport self1 p off : no_err (LaxPacketHeaders.add_transport self1 p off).
Proof.
  unfold LaxPacketHeaders.add_transport, Icmpv4Acc.header, Icmpv4Acc.payload, Icmpv4Acc.header_len,
    Icmpv6Acc.header, Icmpv6Acc.payload, UdpAcc.to_header, UdpAcc.payload.
  ne.
Qed.
#[export] Hint Resolve ne_hexts6 ne_frag6 ne_add_transport : ne.

(* the IP header as such is undecodable, as IpHeaders::from_slice_lax reports it (finding F11:
   not the record LaxIpSlice gives for a cut-short IPv4 header, cf. ip_header_fault) *)
Definition hdr_ip_header_fault (bs : bytes) : option slice_error :=
  if len bs =? 0 then Some (ELen (mkLenError 1 (len bs) LsSlice LyIpHeader 0))
  else
    let ver := B bs 0 / 16 in
    if ver =? 4 then
      if len bs <? 20 then Some (ELen (mkLenError 20 (len bs) LsSlice LyIpv4Header 0))
      else
        let ihl := B bs 0 mod 16 in
        if ihl <? 5 then Some (EContent (CeIpIhl ihl))
        else if len bs <? ihl * 4 then Some (ELen (mkLenError (ihl * 4) (len bs) LsSlice LyIpv4Header 0))
        else None
    else if ver =? 6 then
      if len bs <? 40 then Some (ELen (mkLenError 40 (len bs) LsSlice LyIpv6Header 0)) else None
    else Some (EContent (CeIpUnsupportedVersion ver)).

Lemma rd_whole bs i : i < len bs -> rd bs i = Some (B bs i).
Proof.
  intros H. pose proof (repr_rd bs (mk_slice bs) 0 (len bs) i (repr_whole bs) ltac:(lia)) as X.
  now rewrite N.add_0_l in X.
Qed.

Theorem hdr_lax_ip_err_iff bs e :
  LaxIpHeaders.from_slice_lax (mk_slice bs) = Err e <-> hdr_ip_header_fault bs = Some e.
Proof.
  unfold LaxIpHeaders.from_slice_lax, hdr_ip_header_fault, lerr. rewrite s_len_whole.
  destruct (len bs =? 0) eqn:E0. { rewrite err_inj, some_inj. reflexivity. }
  change (snd (mk_slice bs)) with bs. rewrite rd_whole by lia. cbn [bind].
  rewrite shr4_div16.
  destruct (B bs 0 / 16 =? 4).
  { destruct (len bs <? 20) eqn:E20. { rewrite err_inj, some_inj. reflexivity. }
    rewrite rdU_whole by lia. cbn [bind]. rewrite land15_mod.
    destruct (B bs 0 mod 16 <? 5). { rewrite err_inj, some_inj. reflexivity. }
    destruct (len bs <? B bs 0 mod 16 * 4). { rewrite err_inj, some_inj. reflexivity. }
    apply no_err_iff; [|discriminate].
    unfold Ipv4HeaderSlice.total_len, Ipv4HeaderSlice.protocol, Ipv4HeaderSlice.is_fragmenting_payload,
      Ipv4HeaderSlice.more_fragments, Ipv4HeaderSlice.fragments_offset.
    ne. }
  destruct (B bs 0 / 16 =? 6); [|rewrite err_inj, some_inj; reflexivity].
  destruct (len bs <? 40). { rewrite err_inj, some_inj. reflexivity. }
  apply no_err_iff; [|discriminate].
  unfold Ipv6HeaderSlice.payload_length, Ipv6HeaderSlice.next_header. ne.
Qed.

Lemma ne_link_loop fuel : forall st, no_err (LaxPacketHeaders.link_loop fuel st).
Proof.
  induction fuel as [|f IH]; intros st; cbn [LaxPacketHeaders.link_loop]; [apply ne_bug|].
  unfold SingleVlanHeader.from_slice, SingleVlanHeader.ether_type, LaxPacketHeaders.push_ext, lerr,
    Macsec.header_len, Macsec.sci_present, Macsec.is_unmodified, Macsec.tci_an_raw.
  ne.
  all: intros e H; discriminate.
Qed.
#[export] Hint Resolve ne_link_loop : ne.

Lemma ne_net_part st : no_err (LaxPacketHeaders.net_part st).
Proof. unfold LaxPacketHeaders.net_part. ne. Qed.
#[export] Hint Resolve ne_net_part : ne.

Lemma ne_from_ether_type_slice et s : no_err (LaxPacketHeaders.from_ether_type_slice et s).
Proof. unfold LaxPacketHeaders.from_ether_type_slice. ne. Qed.
#[export] Hint Resolve ne_from_ether_type_slice : ne.

(* (c) for LaxPacketHeaders *)
Theorem hdr_lax_err_only_first bs et e :
  (LaxPacketHeaders.from_ethernet bs = Err e <->
     (len bs < 14 /\ e = ELen (mkLenError 14 (len bs) LsSlice LyEthernet2Header 0))) /\
  LaxPacketHeaders.from_ether_type et bs <> Err e /\
  (LaxPacketHeaders.from_ip bs = Err e <-> hdr_ip_header_fault bs = Some e).
Proof.
  split; [|split].
  - unfold LaxPacketHeaders.from_ethernet, Ethernet2Header.from_slice, lerr. rewrite s_len_whole.
    destruct (len bs <? 14) eqn:E14; cbn [bind].
    + split; [intros H; injection H as <-; split; [lia|reflexivity]|intros (_ & ->); reflexivity].
    + apply no_err_iff; [|intros (H & _); lia]. unfold Ethernet2Header.ether_type. ne.
  - apply ne_from_ether_type_slice.
  - rewrite <- hdr_lax_ip_err_iff. unfold LaxPacketHeaders.from_ip, LaxPacketHeaders.add_ip.
    apply bind_err_iff. intros [[ip p] st]. ne.
Qed.
