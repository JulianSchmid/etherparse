(* Parse/OffsetBounds.v -- C02: fixed-width overflow in the OFFSET bookkeeping of the strict
   whole-packet path.

   Parse/UsizeBounds.v checks the usize `+` / `*` on VALUES (lengths computed from u8 / u16
   fields).  What it leaves out are the sums of POSITIONS:
     * `LenError::add_offset` / `err.layer_start_offset += ..` : in Ipv4Slice::from_slice and
       the IPv4 arm of IpSlice::from_slice (+ header.slice().len()), in the extension walk of
       Ipv6ExtensionsSlice::from_slice (+ start_slice.len() - rest.len()), in
       Ipv6Slice::from_slice and the IPv6 arm of IpSlice::from_slice (+ Ipv6Header::LEN), and
       in every slicer of SlicedPacketCursor (+ self.offset);
     * `self.offset += header_len` / `+= pointer difference` / `+= result.slice().len()` of
       SlicedPacketCursor (the last one, in the four transport slicers, is a dead store that
       Parse/Cursor.v does not carry; the checked copy below has it);
     * MacsecHeaderSlice::header_len(): 6 + (8|0) + (2|0).
   Here the whole strict path is written a second time -- same structure as Parse/Slices.v and
   Parse/Cursor.v, calling the checked constructors of UsizeBounds.v -- with EVERY such `+`
   checked against a usize of M values (`addC M`: Bug SITE_OVERFLOW when the exact sum is
   >= M).  Theorem `no_offset_overflow`: for every M >= 2^17 and every byte string bs with
   len bs < M (a real slice has len <= isize::MAX < M / 2), the four checked entry points ARE
   SlicedPacket.from_ethernet / from_linux_sll / from_ether_type / from_ip of Parse/Cursor.v:
   no addition overflows.  The proof carries the position invariant
       c_offset c + s_len s <= len bs        (s: the slice the cursor is about to parse)
   and, for the errors, `X.from_slice s = Err (ELen e) -> le_off e <= s_len s`. *)
From EP Require Import Base.Bytes Parse.Types Parse.Slices Parse.Cursor Parse.Repr Parse.Access
  Parse.AccessProofs Parse.UsizeBounds.
From EP Require Parse.StrictProofs.
From Coq Require Import ZArith Lia ZifyN ZifyBool.

Local Open Scope N_scope.

Section Checked.
  Variable M : N.

  (* LenError::add_offset / `err.layer_start_offset += o` *)
  Definition le_add_offsetC (e : len_error) (o : N) : res len_error :=
    let* x := addC M (le_off e) o in
    Ok (mkLenError (le_required e) (le_len e) (le_src e) (le_layer e) x).

  (* here the closure of a map_err (`add_offset`) can itself overflow *)
  Definition fixC {A} (x : res len_error) : res A :=
    match x with Ok e => Err (ELen e) | Err y => Err y | Bug b => Bug b end.
  Definition map_len_errC {A} (f : len_error -> res len_error) (r : res A) : res A :=
    match r with
    | Err (ELen e) => fixC (f e)
    | _ => r
    end.

  Definition ipv4_finishC (header header_payload : slice) : res ipv4_slice :=
    let* fragmented := Ipv4HeaderSlice.is_fragmenting_payload header in
    let* proto := Ipv4HeaderSlice.protocol header in
    if proto =? IPN_AUTH then
      let* auth :=
        match auth_from_slice M header_payload with
        | Err (ELen l) =>
            fixC (le_add_offsetC (le_set_src l LsIpv4HeaderTotalLen) (s_len header))
        | r => r
        end in
      let* n := subN (s_len header_payload) (s_len auth) in
      let* payload := subU header_payload (s_len auth) n in
      let* ipn := IpAuthHeaderSlice.next_header auth in
      Ok (mkIpv4Slice header (Some auth)
            (mkIpPayload ipn fragmented LsIpv4HeaderTotalLen payload))
    else
      Ok (mkIpv4Slice header None
            (mkIpPayload proto fragmented LsIpv4HeaderTotalLen header_payload)).

  Definition ipv4_from_sliceC (s : slice) : res ipv4_slice :=
    let* header := ipv4_header_from_slice M s in
    let* header_total_len := Ipv4HeaderSlice.total_len header in
    if header_total_len <? s_len header then
      lerr (s_len header) header_total_len LsIpv4HeaderTotalLen LyIpv4Packet
    else if s_len s <? header_total_len then
      lerr header_total_len (s_len s) LsSlice LyIpv4Packet
    else
      let* n := subN header_total_len (s_len header) in
      let* header_payload := subU s (s_len header) n in
      ipv4_finishC header header_payload.

  Fixpoint walkC (fuel : nat) (start_len : N) (rest : slice) (next_header : N) (fragmented : bool)
    : res (slice * N * bool) :=
    match fuel with
    | O => Bug SITE_FUEL
    | S f =>
        if next_header =? IPN_HOP_BY_HOP then Err (EContent CeHopByHopNotAtStart)
        else if (next_header =? IPN_DEST_OPTIONS) || (next_header =? IPN_ROUTE) then
          let* off := subN start_len (s_len rest) in
          let* sl := map_len_errC (fun e => le_add_offsetC e off) (raw_from_slice M rest) in
          let* n := subN (s_len rest) (s_len sl) in
          let* rest' := subU rest (s_len sl) n in
          let* nh := Ipv6RawExtHeaderSlice.next_header sl in
          walkC f start_len rest' nh fragmented
        else if next_header =? IPN_FRAG then
          let* off := subN start_len (s_len rest) in
          let* sl := map_len_errC (fun e => le_add_offsetC e off) (Ipv6FragmentHeaderSlice.from_slice rest) in
          let* n := subN (s_len rest) (s_len sl) in
          let* rest' := subU rest (s_len sl) n in
          let* nh := Ipv6FragmentHeaderSlice.next_header sl in
          let* fr := Ipv6FragmentHeaderSlice.is_fragmenting_payload sl in
          walkC f start_len rest' nh (fragmented || fr)
        else if next_header =? IPN_AUTH then
          let* off := subN start_len (s_len rest) in
          let* sl :=
            match auth_from_slice M rest with
            | Err (ELen e) => fixC (le_add_offsetC e off)
            | Err (EContent _) => Err (EContent CeIpv6AuthZeroPayloadLen)
            | r => r
            end in
          let* n := subN (s_len rest) (s_len sl) in
          let* rest' := subU rest (s_len sl) n in
          let* nh := IpAuthHeaderSlice.next_header sl in
          walkC f start_len rest' nh fragmented
        else Ok (rest, next_header, fragmented)
    end.

  Definition exts_from_sliceC (start_ip_number : N) (start_slice : slice)
    : res (ipv6_exts_slice * N * slice) :=
    let* st :=
      (if IPN_HOP_BY_HOP =? start_ip_number then
         let* sl := raw_from_slice M start_slice in
         let* rest := (if s_len sl <=? s_len start_slice
                       then Ok (fst start_slice + s_len sl, drop (s_len sl) (snd start_slice))
                       else Bug SITE_INDEX) in
         let* nh := Ipv6RawExtHeaderSlice.next_header sl in
         Ok (rest, nh)
       else Ok (start_slice, start_ip_number)) in
    let '(rest0, nh0) := st in
    let* w := walkC (S (length (snd start_slice))) (s_len start_slice) rest0 nh0 false in
    let '(rest, next_header, fragmented) := w in
    let* used := subN (s_len start_slice) (s_len rest) in
    let* sl := (if used <=? s_len start_slice
                then Ok (fst start_slice, take used (snd start_slice)) else Bug SITE_INDEX) in
    Ok (mkIpv6Exts
          (if negb (s_len rest =? s_len start_slice) then Some start_ip_number else None)
          fragmented sl,
        next_header, rest).

  Definition ipv6_finishC (s header : slice) : res ipv6_slice :=
    let* pl := Ipv6HeaderSlice.payload_length header in
    let* hp :=
      (if (0 =? pl) && (40 <? s_len s) then
         let* n := subN (s_len s) 40 in
         let* p := subU s 40 n in
         Ok (p, LsSlice)
       else
         let* expected_len := addC M 40 pl in
         if s_len s <? expected_len then lerr expected_len (s_len s) LsSlice LyIpv6Packet
         else
           let* p := subU s 40 pl in
           Ok (p, LsIpv6HeaderPayloadLen)) in
    let '(header_payload, src) := hp in
    let* nh := Ipv6HeaderSlice.next_header header in
    let* x :=
      match exts_from_sliceC nh header_payload with
      | Err (ELen e) => fixC (le_add_offsetC (le_set_src e src) 40)
      | r => r
      end in
    let '(exts, payload_ip_number, payload) := x in
    Ok (mkIpv6Slice header exts
          (mkIpPayload payload_ip_number (x6_fragmented exts) src payload)).

  Definition ipv6_from_sliceC (s : slice) : res ipv6_slice :=
    let* header := Ipv6HeaderSlice.from_slice s in
    ipv6_finishC s header.

  Definition ip_from_sliceC (s : slice) : res ip_slice :=
    if s_len s =? 0 then lerr 1 (s_len s) LsSlice LyIpHeader
    else
      let* first_byte := rdU s 0 in
      let ver := N.shiftr first_byte 4 in
      if ver =? 4 then
        let ihl := N.land first_byte 15 in
        if ihl <? 5 then Err (EContent (CeIpIhl ihl))
        else
          let* header_len := mulC M ihl 4 in
          if s_len s <? header_len then lerr header_len (s_len s) LsSlice LyIpv4Header
          else
            let* header := subU s 0 header_len in
            let* total_len := Ipv4HeaderSlice.total_len header in
            if total_len <? header_len then
              lerr header_len total_len LsIpv4HeaderTotalLen LyIpv4Packet
            else if s_len s <? total_len then
              lerr total_len (s_len s) LsSlice LyIpv4Packet
            else
              let* n := subN total_len header_len in
              let* header_payload := subU s header_len n in
              let* v := ipv4_finishC header header_payload in
              Ok (IpV4 v)
      else if ver =? 6 then
        if s_len s <? 40 then lerr 40 (s_len s) LsSlice LyIpv6Header
        else
          let* header := subU s 0 40 in
          let* v := ipv6_finishC s header in
          Ok (IpV6 v)
      else Err (EContent (CeIpUnsupportedVersion ver)).

  Import SlicedPacketCursor.

  (* err.layer_start_offset += self.offset; if Slice == err.len_source { .. } *)
  Definition tr_fixC (c : cursor) (e : len_error) : res len_error :=
    let* e1 := le_add_offsetC e (c_offset c) in
    Ok (match le_src e1 with
        | LsSlice => le_set_src e1 (c_src c)
        | _ => e1
        end).

  (* the four transport slicers end with `self.offset += result.slice().len()` *)
  Definition slice_icmp4C (c : cursor) (s : slice) : res sliced_packet :=
    let* r := map_len_errC (tr_fixC c) (Icmpv4Slice.from_slice s) in
    let* _ := addC M (c_offset c) (s_len r) in
    Ok (set_transport c (TrIcmpv4 r)).
  Definition slice_icmp6C (c : cursor) (s : slice) : res sliced_packet :=
    let* r := map_len_errC (tr_fixC c) (Icmpv6Slice.from_slice s) in
    let* _ := addC M (c_offset c) (s_len r) in
    Ok (set_transport c (TrIcmpv6 r)).
  Definition slice_udpC (c : cursor) (s : slice) : res sliced_packet :=
    let* r := map_len_errC (tr_fixC c) (UdpSlice.from_slice s) in
    let* _ := addC M (c_offset c) (s_len r) in
    Ok (set_transport c (TrUdp r)).
  Definition slice_tcpC (c : cursor) (s : slice) : res sliced_packet :=
    let* r := map_len_errC (tr_fixC c) (TcpSlice.from_slice s) in
    let* _ := addC M (c_offset c) (s_len (snd r)) in
    Ok (set_transport c (TrTcp (fst r) (snd r))).

  Definition slice_arpC (c : cursor) (s : slice) : res sliced_packet :=
    let* r := map_len_errC (fun e => le_add_offsetC e (c_offset c)) (arp_from_slice M s) in
    let* off := addC M (c_offset c) (s_len r) in
    let c' := set_net c off (c_src c) (NtArp r) in
    Ok (c_result c').

  Definition transport_dispatchC (c : cursor) (p : ip_payload) : res sliced_packet :=
    if ipp_fragmented p then Ok (c_result c)
    else if ipp_number p =? IPN_ICMP then slice_icmp4C c (ipp_slice p)
    else if ipp_number p =? IPN_UDP then slice_udpC c (ipp_slice p)
    else if ipp_number p =? IPN_TCP then slice_tcpC c (ipp_slice p)
    else if ipp_number p =? IPN_ICMPV6 then slice_icmp6C c (ipp_slice p)
    else Ok (c_result c).

  Definition slice_ipC (c : cursor) (s : slice) : res sliced_packet :=
    let* ip := map_len_errC (fun e => le_add_offsetC e (c_offset c)) (ip_from_sliceC s) in
    let payload := IpSlice.payload ip in
    let* d := ptr_diff (ipp_slice payload) s in
    let* off := addC M (c_offset c) d in
    let c' := set_net c off (ipp_src payload)
                (match ip with IpV4 v => NtIpv4 v | IpV6 v => NtIpv6 v end) in
    transport_dispatchC c' payload.

  Definition slice_ipv4C (c : cursor) (s : slice) : res sliced_packet :=
    let* ip := map_len_errC (fun e => le_add_offsetC e (c_offset c)) (ipv4_from_sliceC s) in
    let payload := v4_payload ip in
    let* d := ptr_diff (ipp_slice payload) s in
    let* off := addC M (c_offset c) d in
    let c' := set_net c off (ipp_src payload) (NtIpv4 ip) in
    transport_dispatchC c' payload.

  Definition slice_ipv6C (c : cursor) (s : slice) : res sliced_packet :=
    let* ip := map_len_errC (fun e => le_add_offsetC e (c_offset c)) (ipv6_from_sliceC s) in
    let payload := v6_payload ip in
    let* d := ptr_diff (ipp_slice payload) s in
    let* off := addC M (c_offset c) d in
    let c' := set_net c off (ipp_src payload) (NtIpv6 ip) in
    transport_dispatchC c' payload.

  (* MacsecHeaderSlice::header_len: 6 + if sci {8} else {0} + if unmodified {2} else {0} *)
  Definition macsec_header_lenC (h : slice) : res N :=
    let* sci := Macsec.sci_present h in
    let* un := Macsec.is_unmodified h in
    let* a := addC M 6 (if sci then 8 else 0) in
    addC M a (if un then 2 else 0).

  Fixpoint slice_ether_type_loopC (fuel : nat) (c : cursor) (ep : ether_payload)
    : res sliced_packet :=
    match fuel with
    | O => Bug SITE_FUEL
    | S f =>
        let et := ep_ether_type ep in
        if is_vlan_type et then
          if LINK_EXTS_CAP <=? len (sp_exts (c_result c)) then Ok (c_result c)
          else
            let* vlan := map_len_errC (fun e => le_add_offsetC e (c_offset c))
                           (SingleVlanSlice.from_slice (ep_slice ep)) in
            let* vp := SingleVlanSlice.payload vlan in
            let* off := addC M (c_offset c) SingleVlanSlice.header_len in
            let* c' := push_ext c off (c_src c) (LeVlan vlan) in
            slice_ether_type_loopC f c' vp
        else if et =? ET_MACSEC then
          if LINK_EXTS_CAP <=? len (sp_exts (c_result c)) then Ok (c_result c)
          else
            let* macsec := map_len_errC (fun e => le_add_offsetC e (c_offset c))
                             (macsec_from_slice M (ep_slice ep)) in
            let* hl := macsec_header_lenC (ms_header macsec) in
            let* sl := Macsec.short_len (ms_header macsec) in
            let src := if 0 <? sl then LsMacsecShortLength else c_src c in
            let* off := addC M (c_offset c) hl in
            let* c' := push_ext c off src (LeMacsec macsec) in
            match ms_payload macsec with
            | MpUnmodified e => slice_ether_type_loopC f c' e
            | MpModified _ => Ok (c_result c')
            end
        else if et =? ET_ARP then slice_arpC c (ep_slice ep)
        else if et =? ET_IPV4 then slice_ipv4C c (ep_slice ep)
        else if et =? ET_IPV6 then slice_ipv6C c (ep_slice ep)
        else Ok (c_result c)
    end.

  Definition slice_ether_typeC (c : cursor) (ep : ether_payload) : res sliced_packet :=
    slice_ether_type_loopC 5 c ep.

  Definition slice_ethernet2C (c : cursor) (s : slice) : res sliced_packet :=
    let* r := map_len_errC (fun e => le_add_offsetC e (c_offset c))
                (Ethernet2Slice.from_slice_without_fcs s) in
    let* ep := Ethernet2Slice.payload r in
    let* off := addC M (c_offset c) Ethernet2Slice.header_len in
    let c' := set_link c off (LkEthernet2 r) in
    slice_ether_typeC c' ep.

  Definition slice_linux_sllC (c : cursor) (s : slice) : res sliced_packet :=
    let* r := map_len_errC (fun e => le_add_offsetC e (c_offset c)) (LinuxSll.from_slice s) in
    let '(h, whole) := r in
    let* pt := LinuxSll.protocol_type h in
    let* pl := LinuxSll.payload_slice whole in
    let* off := addC M (c_offset c) 16 in
    let c' := set_link c off (LkLinuxSll h whole) in
    match pt with
    | SllEtherType et => slice_ether_typeC c' (mkEtherPayload et LsSlice pl)
    | _ => Ok (c_result c')
    end.

  (* SlicedPacket::from_* *)
  Definition from_ethernetC (data : bytes) : res sliced_packet :=
    slice_ethernet2C new (mk_slice data).
  Definition from_linux_sllC (data : bytes) : res sliced_packet :=
    slice_linux_sllC new (mk_slice data).
  Definition from_ether_typeC (ether_type : N) (data : bytes) : res sliced_packet :=
    let ep := mkEtherPayload ether_type LsSlice (mk_slice data) in
    slice_ether_typeC (set_link new 0 (LkEtherPayload ep)) ep.
  Definition from_ipC (data : bytes) : res sliced_packet :=
    slice_ipC new (mk_slice data).
End Checked.

(* where the layer_start_offset of a constructor's LenError can lie *)
Definition erroff {A} (r : res A) (b : N) : Prop := forall e, r = Err (ELen e) -> le_off e <= b.

Lemma eo_Ok {A} (x : A) b : erroff (Ok x) b. Proof. intros e H; discriminate. Qed.
Lemma eo_Bug {A} n b : erroff (@Bug A n) b. Proof. intros e H; discriminate. Qed.
Lemma eo_content {A} c b : erroff (@Err A (EContent c)) b. Proof. intros e H; discriminate. Qed.
Lemma eo_lerr {A} r l s y b : erroff (@lerr A r l s y) b.
Proof. intros e H. unfold lerr in H. injection H as <-. cbn. lia. Qed.
Lemma eo_mono {A} (r : res A) a b : erroff r a -> a <= b -> erroff r b.
Proof. intros H L e E. specialize (H e E). lia. Qed.

Lemma eo_bind {A B} (r : res A) (f : A -> res B) b :
  erroff r b -> (forall x, r = Ok x -> erroff (f x) b) -> erroff (bind r f) b.
Proof.
  destruct r as [x|e|n]; cbn [bind]; intros H K; [now apply K| |apply eo_Bug].
  intros e' E. apply H. injection E as ->. reflexivity.
Qed.

(* the primitives never return Err *)
Lemma eo_rdU s i b : erroff (rdU s i) b.
Proof. unfold rdU. destruct (rd (snd s) i); [apply eo_Ok|apply eo_Bug]. Qed.
Lemma eo_subN x y b : erroff (subN x y) b.
Proof. unfold subN. destruct (y <=? x); [apply eo_Ok|apply eo_Bug]. Qed.
Lemma eo_subU s k n b : erroff (subU s k n) b.
Proof. unfold subU. destruct (k + n <=? s_len s); [apply eo_Ok|apply eo_Bug]. Qed.
Lemma eo_rd16 s i b : erroff (rd16 s i) b.
Proof.
  unfold rd16. apply eo_bind; [apply eo_rdU|]. intros x _.
  apply eo_bind; [apply eo_rdU|]. intros y _. apply eo_Ok.
Qed.

Ltac eofin := first [ apply eo_Ok | apply eo_Bug | apply eo_content | apply eo_lerr
                    | apply eo_rdU | apply eo_subN | apply eo_subU | apply eo_rd16 ].
Ltac eostep :=
  match goal with
  | |- erroff (if ?c then _ else _) _ => destruct c
  | |- erroff (bind _ _) _ => apply eo_bind; [|intros ? _]
  | |- erroff (match ?x with Some _ => _ | None => _ end) _ => destruct x
  | |- erroff (let '(_, _) := ?x in _) _ => destruct x
  end.
Ltac eo := repeat (first [ eofin | eostep ]).

(* constructors whose LenErrors all carry layer_start_offset 0 *)
Lemma eo_eth2 s b : erroff (Ethernet2Slice.from_slice_without_fcs s) b.
Proof. unfold Ethernet2Slice.from_slice_without_fcs. eo. Qed.
Lemma eo_vlan s b : erroff (SingleVlanSlice.from_slice s) b.
Proof. unfold SingleVlanSlice.from_slice. eo. Qed.
Lemma eo_sllh s b : erroff (LinuxSll.header_from_slice s) b.
Proof.
  unfold LinuxSll.header_from_slice, LinuxSll.packet_type_try_from, LinuxSll.protocol_type_try_from. eo.
Qed.
Lemma eo_sll s b : erroff (LinuxSll.from_slice s) b.
Proof. unfold LinuxSll.from_slice. eo. apply eo_sllh. Qed.
Lemma eo_macsech s b : erroff (Macsec.header_from_slice s) b.
Proof. unfold Macsec.header_from_slice. cbv zeta. eo. Qed.
Lemma eo_macsec s b : erroff (Macsec.from_slice s) b.
Proof.
  unfold Macsec.from_slice, Macsec.expected_payload_len, Macsec.next_ether_type, Macsec.short_len,
    Macsec.tci_an_raw. cbv zeta.
  apply eo_bind; [apply eo_macsech|]. intros h _. eo.
Qed.
Lemma eo_arp s b : erroff (ArpPacketSlice.from_slice s) b.
Proof. unfold ArpPacketSlice.from_slice. cbv zeta. eo. Qed.
Lemma eo_ipv4h s b : erroff (Ipv4HeaderSlice.from_slice s) b.
Proof. unfold Ipv4HeaderSlice.from_slice. cbv zeta. eo. Qed.
Lemma eo_ah s b : erroff (IpAuthHeaderSlice.from_slice s) b.
Proof. unfold IpAuthHeaderSlice.from_slice. cbv zeta. eo. Qed.
Lemma eo_ipv6h s b : erroff (Ipv6HeaderSlice.from_slice s) b.
Proof. unfold Ipv6HeaderSlice.from_slice. cbv zeta. eo. Qed.
Lemma eo_raw s b : erroff (Ipv6RawExtHeaderSlice.from_slice s) b.
Proof. unfold Ipv6RawExtHeaderSlice.from_slice. cbv zeta. eo. Qed.
Lemma eo_frag s b : erroff (Ipv6FragmentHeaderSlice.from_slice s) b.
Proof. unfold Ipv6FragmentHeaderSlice.from_slice. eo. Qed.
Lemma eo_udp s b : erroff (UdpSlice.from_slice s) b.
Proof. unfold UdpSlice.from_slice, UdpSlice.header_from_slice, UdpSlice.length. eo. Qed.
Lemma eo_tcp s b : erroff (TcpSlice.from_slice s) b.
Proof. unfold TcpSlice.from_slice. cbv zeta. eo. Qed.
Lemma eo_icmp4 s b : erroff (Icmpv4Slice.from_slice s) b.
Proof. unfold Icmpv4Slice.from_slice. eo. Qed.
Lemma eo_icmp6 s b : erroff (Icmpv6Slice.from_slice s) b.
Proof. unfold Icmpv6Slice.from_slice. eo. Qed.

Lemma eo_map {A} (r : res A) f a b :
  erroff r a -> (forall e, le_off e <= a -> le_off (f e) <= b) -> erroff (map_len_err f r) b.
Proof.
  intros H L. destruct r as [x|[e|c]|n]; cbn [map_len_err]; eo.
  intros e' E. injection E as <-. exact (L e (H e eq_refl)).
Qed.

(* the models write map_len_err as a match where the closure also sets the length source *)
Lemma match_map_len_err {A} f (r : res A) :
  match r with
  | Ok x => Ok x | Err (ELen e) => Err (ELen (f e)) | Err (EContent c) => Err (EContent c) | Bug n => Bug n
  end = map_len_err f r.
Proof. now destruct r as [x|[e|c]|n]. Qed.

(* Ipv4Slice: the authentication header's error is moved behind the IPv4 header *)
Lemma eo_ipv4_finish h hp : erroff (Ipv4Slice.finish h hp) (s_len h).
Proof.
  unfold Ipv4Slice.finish, Ipv4HeaderSlice.is_fragmenting_payload, Ipv4HeaderSlice.more_fragments,
    Ipv4HeaderSlice.fragments_offset, Ipv4HeaderSlice.protocol, IpAuthHeaderSlice.next_header.
  eo.
  rewrite match_map_len_err. apply (eo_map _ _ 0); [apply eo_ah|]. intros e He. cbn. lia.
Qed.

Lemma eo_ipv4 s : erroff (Ipv4Slice.from_slice s) (s_len s).
Proof.
  unfold Ipv4Slice.from_slice. apply eo_bind; [apply eo_ipv4h|]. intros h Eh.
  apply ipv4h_wf in Eh. destruct Eh as (_ & S). pose proof (sub_of_len _ _ S).
  unfold Ipv4HeaderSlice.total_len. eo. eapply eo_mono; [apply eo_ipv4_finish|lia].
Qed.

(* the walk: an extension header's error is moved by what has been consumed *)
Lemma eo_map_add {A} (r : res A) off b :
  erroff r 0 -> off <= b -> erroff (map_len_err (fun e => le_add_offset e off) r) b.
Proof. intros H L. apply (eo_map r _ 0 b H). intros e He. cbn. lia. Qed.

Lemma eo_walk fuel start : forall rest nh fr,
  erroff (Ipv6ExtensionsSlice.walk fuel start rest nh fr) start.
Proof.
  induction fuel as [|f IH]; intros rest nh fr; cbn [Ipv6ExtensionsSlice.walk]; [apply eo_Bug|].
  unfold Ipv6RawExtHeaderSlice.next_header, Ipv6FragmentHeaderSlice.next_header,
    IpAuthHeaderSlice.next_header.
  destruct (nh =? IPN_HOP_BY_HOP); [eo|].
  destruct ((nh =? IPN_DEST_OPTIONS) || (nh =? IPN_ROUTE)).
  { apply eo_bind; [eo|]. intros off Eo. apply subN_inv in Eo.
    apply eo_bind; [apply eo_map_add; [apply eo_raw|lia]|]. intros sl _. eo. apply IH. }
  destruct (nh =? IPN_FRAG).
  { apply eo_bind; [eo|]. intros off Eo. apply subN_inv in Eo.
    apply eo_bind; [apply eo_map_add; [apply eo_frag|lia]|]. intros sl _. eo.
    unfold Ipv6FragmentHeaderSlice.is_fragmenting_payload, Ipv6FragmentHeaderSlice.more_fragments,
      Ipv6FragmentHeaderSlice.fragment_offset. eo. apply IH. }
  destruct (nh =? IPN_AUTH); [|eo].
  apply eo_bind; [eo|]. intros off Eo. apply subN_inv in Eo.
  apply eo_bind.
  { pose proof (eo_ah rest 0) as H.
    destruct (IpAuthHeaderSlice.from_slice rest) as [a|[e|c]|n]; eo.
    intros e' E. injection E as <-. specialize (H e eq_refl). cbn. lia. }
  intros sl _. eo. apply IH.
Qed.

Lemma eo_exts nh s : erroff (Ipv6ExtensionsSlice.from_slice nh s) (s_len s).
Proof.
  unfold Ipv6ExtensionsSlice.from_slice, Ipv6RawExtHeaderSlice.next_header.
  apply eo_bind.
  { destruct (IPN_HOP_BY_HOP =? nh); eo. apply eo_raw. }
  intros (rest0, nh0) _. apply eo_bind; [apply eo_walk|]. intros ((r, x), fr) _. eo.
Qed.

(* Ipv6Slice: + Ipv6Header::LEN *)
Lemma eo_ipv6_finish s h : erroff (Ipv6Slice.finish s h) (s_len s).
Proof.
  unfold Ipv6Slice.finish, Ipv6HeaderSlice.payload_length, Ipv6HeaderSlice.next_header. cbv zeta.
  apply eo_bind; [eo|]. intros pl _.
  match goal with |- erroff (bind ?X _) _ =>
    assert (HX : erroff X (s_len s)) by eo;
    destruct X as [(hp, src)|[e|c]|n] eqn:Ehp; cbn [bind] end; eo;
    [|intros e' E; injection E as <-; exact (HX e eq_refl)].
  assert (L : 40 + s_len hp <= s_len s).
  { destruct ((0 =? pl) && (40 <? s_len s)).
    - binv Ehp n En. binv Ehp p Ep. injection Ehp as <- <-. apply subU_inv in Ep. lia.
    - destruct (s_len s <? 40 + pl); [discriminate|].
      binv Ehp p Ep. injection Ehp as <- <-. apply subU_inv in Ep. lia. }
  rewrite match_map_len_err. apply (eo_map _ _ (s_len hp)); [apply eo_exts|]. intros e He. cbn. lia.
Qed.

Lemma eo_ipv6 s : erroff (Ipv6Slice.from_slice s) (s_len s).
Proof. unfold Ipv6Slice.from_slice. apply eo_bind; [apply eo_ipv6h|]. intros h _. apply eo_ipv6_finish. Qed.

Lemma eo_ip s : erroff (IpSlice.from_slice s) (s_len s).
Proof.
  unfold IpSlice.from_slice, Ipv4HeaderSlice.total_len. cbv zeta.
  destruct (s_len s =? 0); [eo|]. apply eo_bind; [eo|]. intros fb _.
  destruct (N.shiftr fb 4 =? 4).
  - destruct (N.land fb 15 <? 5); [eo|]. destruct (s_len s <? N.land fb 15 * 4) eqn:C; [eo|].
    apply eo_bind; [eo|]. intros h Eh. apply subU_inv in Eh. eo.
    eapply eo_mono; [apply eo_ipv4_finish|lia].
  - eo. apply eo_ipv6_finish.
Qed.

Lemma bind_ext {A B} (r : res A) (f g : A -> res B) :
  (forall x, r = Ok x -> f x = g x) -> bind r f = bind r g.
Proof. destruct r as [x|e|n]; cbn [bind]; intros H; [now apply H|reflexivity|reflexivity]. Qed.

Section Proofs.
  Variable M : N.
  Hypothesis HM : 131072 <= M.   (* 2 ^ 17 *)

  Lemma le_add_offsetC_ok e o : le_off e + o < M -> le_add_offsetC M e o = Ok (le_add_offset e o).
  Proof. intros H. unfold le_add_offsetC. rewrite addC_ok by exact H. reflexivity. Qed.

  Lemma map_len_errC_eq {A} fC f (r : res A) :
    (forall e, r = Err (ELen e) -> fC e = Ok (f e)) -> map_len_errC fC r = map_len_err f r.
  Proof.
    intros H. destruct r as [x|[e|c]|n]; cbn [map_len_errC map_len_err]; try reflexivity.
    rewrite (H e eq_refl). reflexivity.
  Qed.

  (* the same for the closures written as a match: move the error by o, name the source src *)
  Lemma match_addC_eq {A} (r : res A) src b o :
    erroff r b -> b + o < M ->
    match r with
    | Ok x => Ok x | Err (ELen e) => fixC (le_add_offsetC M (le_set_src e src) o)
    | Err (EContent c) => Err (EContent c) | Bug n => Bug n
    end = map_len_err (fun e => le_add_offset (le_set_src e src) o) r.
  Proof.
    intros H L. destruct r as [x|[e|c]|n]; try reflexivity.
    specialize (H e eq_refl). now rewrite le_add_offsetC_ok by (cbn; lia).
  Qed.

  (* the usual shape: add an offset to an error that lies at most b into the slice *)
  Lemma map_addC_eq {A} (r : res A) b o :
    erroff r b -> b + o < M ->
    map_len_errC (fun e => le_add_offsetC M e o) r = map_len_err (fun e => le_add_offset e o) r.
  Proof.
    intros H L. apply map_len_errC_eq. intros e E. apply le_add_offsetC_ok.
    specialize (H e E). lia.
  Qed.

  Lemma ipv4_finishC_eq h hp : s_len h < M -> bytes_ok (snd hp) ->
    ipv4_finishC M h hp = Ipv4Slice.finish h hp.
  Proof.
    intros L Hok. unfold ipv4_finishC, Ipv4Slice.finish.
    apply bind_ext. intros fr _. apply bind_ext. intros proto _.
    destruct (proto =? IPN_AUTH); [|reflexivity].
    rewrite (auth_chk M HM hp Hok), (match_addC_eq _ _ 0 _ (eo_ah hp 0)), match_map_len_err by lia.
    reflexivity.
  Qed.

  Lemma ipv4_from_sliceC_eq s : bytes_ok (snd s) -> ipv4_from_sliceC M s = Ipv4Slice.from_slice s.
  Proof.
    intros Hok. unfold ipv4_from_sliceC, Ipv4Slice.from_slice. rewrite (ipv4_header_chk M HM).
    apply bind_ext. intros h Eh. apply ipv4h_wf in Eh. destruct Eh as ((L20 & L60) & S).
    apply bind_ext. intros tl _.
    destruct (tl <? s_len h); [reflexivity|]. destruct (s_len s <? tl); [reflexivity|].
    apply bind_ext. intros n _. apply bind_ext. intros hp Ehp.
    apply ipv4_finishC_eq; [lia|]. exact (subU_bytes_ok _ _ _ _ Ehp Hok).
  Qed.

  Lemma walkC_eq fuel start : start < M -> forall rest nh fr, bytes_ok (snd rest) ->
    walkC M fuel start rest nh fr = Ipv6ExtensionsSlice.walk fuel start rest nh fr.
  Proof.
    intros LS. induction fuel as [|f IH]; intros rest nh fr Hok; [reflexivity|].
    cbn [walkC Ipv6ExtensionsSlice.walk].
    destruct (nh =? IPN_HOP_BY_HOP); [reflexivity|].
    destruct ((nh =? IPN_DEST_OPTIONS) || (nh =? IPN_ROUTE)).
    { apply bind_ext. intros off Eo. apply subN_inv in Eo.
      rewrite (raw_chk M HM rest Hok).
      rewrite (map_addC_eq _ 0 off (eo_raw rest 0)) by lia.
      apply bind_ext. intros sl _. apply bind_ext. intros n _. apply bind_ext. intros rest' Er.
      apply bind_ext. intros nh' _. apply IH. exact (subU_bytes_ok _ _ _ _ Er Hok). }
    destruct (nh =? IPN_FRAG).
    { apply bind_ext. intros off Eo. apply subN_inv in Eo.
      rewrite (map_addC_eq _ 0 off (eo_frag rest 0)) by lia.
      apply bind_ext. intros sl _. apply bind_ext. intros n _. apply bind_ext. intros rest' Er.
      apply bind_ext. intros nh' _. apply bind_ext. intros fr' _.
      apply IH. exact (subU_bytes_ok _ _ _ _ Er Hok). }
    destruct (nh =? IPN_AUTH); [|reflexivity].
    apply bind_ext. intros off Eo. apply subN_inv in Eo.
    rewrite (auth_chk M HM rest Hok).
    assert (E : match IpAuthHeaderSlice.from_slice rest with
                | Err (ELen e) => fixC (le_add_offsetC M e off)
                | Err (EContent _) => Err (EContent CeIpv6AuthZeroPayloadLen)
                | r => r
                end =
                match IpAuthHeaderSlice.from_slice rest with
                | Err (ELen e) => Err (ELen (le_add_offset e off))
                | Err (EContent _) => Err (EContent CeIpv6AuthZeroPayloadLen)
                | r => r
                end).
    { pose proof (eo_ah rest 0) as H.
      destruct (IpAuthHeaderSlice.from_slice rest) as [a|[e|c]|n]; try reflexivity.
      specialize (H e eq_refl). rewrite le_add_offsetC_ok by lia. reflexivity. }
    rewrite E. clear E.
    apply bind_ext. intros sl _. apply bind_ext. intros n _. apply bind_ext. intros rest' Er.
    apply bind_ext. intros nh' _. apply IH. exact (subU_bytes_ok _ _ _ _ Er Hok).
  Qed.

  Lemma exts_from_sliceC_eq nh s : s_len s < M -> bytes_ok (snd s) ->
    exts_from_sliceC M nh s = Ipv6ExtensionsSlice.from_slice nh s.
  Proof.
    intros L Hok. unfold exts_from_sliceC, Ipv6ExtensionsSlice.from_slice.
    rewrite (raw_chk M HM s Hok).
    match goal with |- bind ?X _ = bind ?X _ => destruct X as [(rest0, nh0)|e|n] eqn:Est; cbn [bind]; try reflexivity end.
    assert (Hr : bytes_ok (snd rest0)).
    { destruct (IPN_HOP_BY_HOP =? nh).
      - binv Est sl Esl. binv Est r Er. binv Est x Ex. injection Est as <- <-.
        destruct (s_len sl <=? s_len s); [|discriminate]. injection Er as <-. cbn [snd].
        now apply bytes_ok_drop.
      - injection Est as <- <-. exact Hok. }
    rewrite (walkC_eq _ _ L _ _ _ Hr). reflexivity.
  Qed.

  Lemma ipv6_finishC_eq s h : s_len s < M -> bytes_ok (snd s) -> bytes_ok (snd h) ->
    ipv6_finishC M s h = Ipv6Slice.finish s h.
  Proof.
    intros L Hok Hh. unfold ipv6_finishC, Ipv6Slice.finish.
    destruct (Ipv6HeaderSlice.payload_length h) as [pl|e|b] eqn:Epl; cbn [bind]; try reflexivity.
    pose proof (rd16_u16 h 4 pl Hh Epl) as B.
    assert (E : (if (0 =? pl) && (40 <? s_len s)
                 then let* n := subN (s_len s) 40 in let* p := subU s 40 n in Ok (p, LsSlice)
                 else let* expected_len := addC M 40 pl in
                      if s_len s <? expected_len then lerr expected_len (s_len s) LsSlice LyIpv6Packet
                      else let* p := subU s 40 pl in Ok (p, LsIpv6HeaderPayloadLen)) =
                (if (0 =? pl) && (40 <? s_len s)
                 then let* n := subN (s_len s) 40 in let* p := subU s 40 n in Ok (p, LsSlice)
                 else let expected_len := 40 + pl in
                      if s_len s <? expected_len then lerr expected_len (s_len s) LsSlice LyIpv6Packet
                      else let* p := subU s 40 pl in Ok (p, LsIpv6HeaderPayloadLen))).
    { destruct ((0 =? pl) && (40 <? s_len s)); [reflexivity|]. rewrite addC_ok by lia. reflexivity. }
    rewrite E. clear E. cbv zeta.
    match goal with |- bind ?X _ = bind ?X _ => destruct X as [(hp, src)|e|n] eqn:Ehp; cbn [bind]; try reflexivity end.
    assert (Shp : 40 + s_len hp <= s_len s /\ bytes_ok (snd hp)).
    { destruct ((0 =? pl) && (40 <? s_len s)).
      - binv Ehp n En. binv Ehp p Ep. injection Ehp as <- <-.
        split; [apply subU_inv in Ep; lia|exact (subU_bytes_ok _ _ _ _ Ep Hok)].
      - destruct (s_len s <? 40 + pl); [discriminate|].
        binv Ehp p Ep. injection Ehp as <- <-.
        split; [apply subU_inv in Ep; lia|exact (subU_bytes_ok _ _ _ _ Ep Hok)]. }
    destruct Shp as (Lhp & Hhp).
    apply bind_ext. intros nh _.
    rewrite exts_from_sliceC_eq, (match_addC_eq _ _ _ _ (eo_exts nh hp)), match_map_len_err by (auto; lia).
    reflexivity.
  Qed.

  Lemma ipv6_from_sliceC_eq s : s_len s < M -> bytes_ok (snd s) ->
    ipv6_from_sliceC M s = Ipv6Slice.from_slice s.
  Proof.
    intros L Hok. unfold ipv6_from_sliceC, Ipv6Slice.from_slice.
    apply bind_ext. intros h Eh. apply ipv6h_wf in Eh. destruct Eh as (_ & S).
    apply ipv6_finishC_eq; auto. exact (sub_of_bytes_ok _ _ S Hok).
  Qed.

  Lemma ip_from_sliceC_eq s : s_len s < M -> bytes_ok (snd s) ->
    ip_from_sliceC M s = IpSlice.from_slice s.
  Proof.
    intros L Hok. unfold ip_from_sliceC, IpSlice.from_slice. cbv zeta.
    destruct (s_len s =? 0); [reflexivity|].
    apply bind_ext. intros fb _.
    destruct (N.shiftr fb 4 =? 4).
    - destruct (N.land fb 15 <? 5); [reflexivity|].
      pose proof (land15_le fb). rewrite mulC_ok by lia. cbn [bind].
      destruct (s_len s <? N.land fb 15 * 4); [reflexivity|].
      apply bind_ext. intros h Eh. apply bind_ext. intros tl _.
      destruct (tl <? N.land fb 15 * 4); [reflexivity|]. destruct (s_len s <? tl); [reflexivity|].
      apply bind_ext. intros n _. apply bind_ext. intros hp Ehp.
      rewrite ipv4_finishC_eq; [reflexivity| |exact (subU_bytes_ok _ _ _ _ Ehp Hok)].
      apply subU_inv in Eh. lia.
    - destruct (N.shiftr fb 4 =? 6); [|reflexivity]. destruct (s_len s <? 40); [reflexivity|].
      apply bind_ext. intros h Eh.
      rewrite ipv6_finishC_eq; auto. exact (subU_bytes_ok _ _ _ _ Eh Hok).
  Qed.
End Proofs.

Section CursorProofs.
  Import SlicedPacketCursor.
  Variable M : N.
  Hypothesis HM : 131072 <= M.
  Variable L : N.                  (* length of the input *)
  Hypothesis HL : L < M.

  (* the position invariant: what is left to parse fits behind the offset *)
  Definition fits (c : cursor) (s : slice) : Prop :=
    c_offset c + s_len s <= L /\ bytes_ok (snd s).

  Lemma tr_fixC_ok c e : le_off e + c_offset c < M -> tr_fixC M c e = Ok (tr_fix c e).
  Proof. intros H. unfold tr_fixC, tr_fix. rewrite le_add_offsetC_ok by exact H. reflexivity. Qed.

  Lemma map_trC_eq {A} c (r : res A) b :
    erroff r b -> b + c_offset c < M ->
    map_len_errC (tr_fixC M c) r = map_len_err (tr_fix c) r.
  Proof.
    intros H Lb. apply map_len_errC_eq. intros e E. apply tr_fixC_ok. specialize (H e E). lia.
  Qed.

  (* one transport slicer: constructor error at offset 0, result inside the slice *)
  Lemma transportC_eq {A} c s (ctor : res A) (ln : A -> N) (mk : A -> transport_slice) :
    fits c s -> erroff ctor 0 -> (forall r, ctor = Ok r -> ln r <= s_len s) ->
    (let* r := map_len_errC (tr_fixC M c) ctor in
     let* _ := addC M (c_offset c) (ln r) in Ok (set_transport c (mk r))) =
    (let* r := map_len_err (tr_fix c) ctor in Ok (set_transport c (mk r))).
  Proof.
    intros (F & _) E Hl. rewrite (map_trC_eq c ctor 0 E) by lia.
    apply bind_ext. intros r Er. apply map_len_err_inv in Er. specialize (Hl r Er).
    rewrite addC_ok by lia. reflexivity.
  Qed.

  Lemma slice_icmp4C_eq c s : fits c s -> slice_icmp4C M c s = slice_icmp4 c s.
  Proof.
    intros F. apply (transportC_eq c s _ (fun r => s_len r) TrIcmpv4 F (eo_icmp4 s 0)).
    intros r Er. apply icmp4_wf in Er. destruct Er as (-> & _). lia.
  Qed.
  Lemma slice_icmp6C_eq c s : fits c s -> slice_icmp6C M c s = slice_icmp6 c s.
  Proof.
    intros F. apply (transportC_eq c s _ (fun r => s_len r) TrIcmpv6 F (eo_icmp6 s 0)).
    intros r Er. apply icmp6_wf in Er. destruct Er as (-> & _). lia.
  Qed.
  Lemma slice_udpC_eq c s : fits c s -> slice_udpC M c s = slice_udp c s.
  Proof.
    intros F. apply (transportC_eq c s _ (fun r => s_len r) TrUdp F (eo_udp s 0)).
    intros r Er. apply udp_wf in Er. destruct Er as (_ & S). exact (sub_of_len _ _ S).
  Qed.
  Lemma slice_tcpC_eq c s : fits c s -> slice_tcpC M c s = slice_tcp c s.
  Proof.
    intros F.
    apply (transportC_eq c s _ (fun r => s_len (snd r)) (fun r => TrTcp (fst r) (snd r)) F (eo_tcp s 0)).
    intros r Er. apply tcp_wf in Er. destruct Er as (_ & ->). lia.
  Qed.

  Lemma transport_dispatchC_eq c p : fits c (ipp_slice p) ->
    transport_dispatchC M c p = transport_dispatch c p.
  Proof.
    intros F. unfold transport_dispatchC, transport_dispatch.
    destruct (ipp_fragmented p); [reflexivity|].
    destruct (ipp_number p =? IPN_ICMP); [now apply slice_icmp4C_eq|].
    destruct (ipp_number p =? IPN_UDP); [now apply slice_udpC_eq|].
    destruct (ipp_number p =? IPN_TCP); [now apply slice_tcpC_eq|].
    destruct (ipp_number p =? IPN_ICMPV6); [now apply slice_icmp6C_eq|]. reflexivity.
  Qed.

  Lemma slice_arpC_eq c s : fits c s -> slice_arpC M c s = slice_arp c s.
  Proof.
    intros (F & Hok). unfold slice_arpC, slice_arp. rewrite (arp_chk M HM s Hok).
    rewrite (map_addC_eq M HM _ 0 (c_offset c) (eo_arp s 0)) by lia.
    apply bind_ext. intros r Er. apply map_len_err_inv in Er. apply arp_wf in Er.
    destruct Er as (_ & S). pose proof (sub_of_len _ _ S). rewrite addC_ok by lia. reflexivity.
  Qed.

  (* the net slicers: payload window inside the slice, offset moved by the pointer difference *)
  Lemma net_tail c s p (n : net_slice) : fits c s -> sub_of (ipp_slice p) s ->
    (let* d := ptr_diff (ipp_slice p) s in
     let* off := addC M (c_offset c) d in
     transport_dispatchC M (set_net c off (ipp_src p) n) p) =
    (let* d := ptr_diff (ipp_slice p) s in
     transport_dispatch (set_net c (c_offset c + d) (ipp_src p) n) p).
  Proof.
    intros (F & Hok) S. pose proof (sub_of_inside _ _ S) as (I1 & I2).
    apply bind_ext. intros d Ed. unfold ptr_diff in Ed. apply subN_inv in Ed.
    rewrite addC_ok by lia. cbn [bind]. apply transport_dispatchC_eq.
    split; [cbn [set_net c_offset]; lia|exact (sub_of_bytes_ok _ _ S Hok)].
  Qed.

  Lemma net_sliceC_eq {A} c s (ctorC ctor : res A) (pay : A -> ip_payload) (mk : A -> net_slice) :
    fits c s -> ctorC = ctor -> erroff ctor (s_len s) ->
    (forall ip, ctor = Ok ip -> sub_of (ipp_slice (pay ip)) s) ->
    (let* ip := map_len_errC (fun e => le_add_offsetC M e (c_offset c)) ctorC in
     let* d := ptr_diff (ipp_slice (pay ip)) s in
     let* off := addC M (c_offset c) d in
     transport_dispatchC M (set_net c off (ipp_src (pay ip)) (mk ip)) (pay ip)) =
    (let* ip := map_len_err (fun e => le_add_offset e (c_offset c)) ctor in
     let* d := ptr_diff (ipp_slice (pay ip)) s in
     transport_dispatch (set_net c (c_offset c + d) (ipp_src (pay ip)) (mk ip)) (pay ip)).
  Proof.
    intros F -> E S. pose proof F as (Fl & _).
    rewrite (map_addC_eq M HM _ (s_len s) (c_offset c) E) by lia.
    apply bind_ext. intros ip Eip. apply map_len_err_inv in Eip. apply net_tail; auto.
  Qed.

  Lemma slice_ipC_eq c s : fits c s -> slice_ipC M c s = slice_ip c s.
  Proof.
    intros F. pose proof F as (Fl & Hok).
    apply (net_sliceC_eq c s _ _ IpSlice.payload (fun ip => match ip with IpV4 v => NtIpv4 v | IpV6 v => NtIpv6 v end) F);
      [apply (ip_from_sliceC_eq M HM s); auto; lia|apply eo_ip|].
    intros ip Eip. pose proof (ip_wf _ _ Eip) as W.
    destruct ip as [v|v]; cbn [IpSlice.payload]; destruct W as (_ & _ & _ & S); exact S.
  Qed.

  Lemma slice_ipv4C_eq c s : fits c s -> slice_ipv4C M c s = slice_ipv4 c s.
  Proof.
    intros F. pose proof F as (Fl & Hok).
    apply (net_sliceC_eq c s _ _ v4_payload NtIpv4 F (ipv4_from_sliceC_eq M HM s Hok) (eo_ipv4 s)).
    intros ip Eip. exact (proj2 (proj2 (proj2 (ipv4_wf _ _ Eip)))).
  Qed.

  Lemma slice_ipv6C_eq c s : fits c s -> slice_ipv6C M c s = slice_ipv6 c s.
  Proof.
    intros F. pose proof F as (Fl & Hok).
    apply (net_sliceC_eq c s _ _ v6_payload NtIpv6 F); [apply (ipv6_from_sliceC_eq M HM s); auto; lia|apply eo_ipv6|].
    intros ip Eip. exact (proj2 (proj2 (proj2 (ipv6_wf _ _ Eip)))).
  Qed.

  Lemma push_ext_offset c o sr x c' : push_ext c o sr x = Ok c' -> c_offset c' = o.
  Proof.
    unfold push_ext. destruct (len (sp_exts (c_result c)) <? LINK_EXTS_CAP); [|discriminate].
    intros H. injection H as <-. reflexivity.
  Qed.

  (* header_len() of an accepted MACsec header is the length of its slice *)
  Lemma macsec_header_len_is h : wf_macsech h -> Macsec.header_len h = Ok (s_len h).
  Proof.
    intros (t & E0 & Lh). unfold Macsec.header_len, Macsec.sci_present, Macsec.is_unmodified,
      Macsec.tci_an_raw. rewrite E0. cbn [bind]. change (Macsec.bit t 32) with (bitset t 32).
    f_equal. destruct (N.land t 12 =? 0), (bitset t 32); lia.
  Qed.

  Lemma macsec_header_lenC_eq h : macsec_header_lenC M h = Macsec.header_len h.
  Proof.
    unfold macsec_header_lenC, Macsec.header_len.
    apply bind_ext. intros sci _. apply bind_ext. intros un _.
    rewrite addC_ok by (destruct sci; lia). cbn [bind].
    rewrite addC_ok by (destruct sci, un; lia). reflexivity.
  Qed.

  (* header and payload of a MacsecSlice lie behind one another inside the input *)
  Lemma macsec_fit s m : Macsec.from_slice s = Ok m ->
    s_len (ms_header m) + s_len (macsec_payload_slice m) <= s_len s.
  Proof.
    unfold Macsec.from_slice. intros H. binv H header Eh. binv H epl Eepl. binv H pls Epls.
    destruct pls as (ps, src). binv H net Enet.
    assert (Sp : s_len header + s_len ps <= s_len s).
    { destruct epl as [req|].
      - destruct (s_len s <? s_len header + req); unfold lerr in Epls; [discriminate|].
        binv Epls p Ep. injection Epls as <- <-. apply subU_inv in Ep. lia.
      - binv Epls n En. binv Epls p Ep. injection Epls as <- <-. apply subU_inv in Ep. lia. }
    destruct net as [et|]; injection H as <-; unfold macsec_payload_slice; cbn; exact Sp.
  Qed.

  Lemma ether_loopC_eq fuel : forall c ep, fits c (ep_slice ep) ->
    slice_ether_type_loopC M fuel c ep = slice_ether_type_loop fuel c ep.
  Proof.
    induction fuel as [|f IH]; intros c ep F; [reflexivity|]. pose proof F as (Fl & Hok).
    cbn [slice_ether_type_loopC slice_ether_type_loop]. cbv zeta.
    destruct (is_vlan_type (ep_ether_type ep)).
    { destruct (LINK_EXTS_CAP <=? len (sp_exts (c_result c))); [reflexivity|].
      rewrite (map_addC_eq M HM _ 0 (c_offset c) (eo_vlan (ep_slice ep) 0)) by lia.
      apply bind_ext. intros vlan Ev. apply map_len_err_inv in Ev.
      pose proof (vlan_wf _ _ Ev) as (-> & Wv). unfold wf_vlan in Wv.
      apply bind_ext. intros vp Evp.
      unfold SingleVlanSlice.header_len. rewrite addC_ok by lia. cbn [bind].
      apply bind_ext. intros c' Ec'. apply IH.
      unfold SingleVlanSlice.payload in Evp. binv Evp et Eet. binv Evp pl Epl. injection Evp as <-.
      cbn [ep_slice]. unfold SingleVlanSlice.payload_slice in Epl. binv Epl n En.
      split; [rewrite (push_ext_offset _ _ _ _ _ Ec'); apply subU_inv in Epl; lia
             |exact (subU_bytes_ok _ _ _ _ Epl Hok)]. }
    destruct (ep_ether_type ep =? ET_MACSEC).
    { destruct (LINK_EXTS_CAP <=? len (sp_exts (c_result c))); [reflexivity|].
      rewrite (macsec_chk M HM _ Hok).
      rewrite (map_addC_eq M HM _ 0 (c_offset c) (eo_macsec (ep_slice ep) 0)) by lia.
      apply bind_ext. intros m Em. apply map_len_err_inv in Em.
      pose proof (macsec_wf _ _ Em) as (Wm & Sh & Sp). pose proof (macsec_fit _ _ Em) as Lm.
      rewrite macsec_header_lenC_eq. rewrite (macsec_header_len_is _ Wm). cbn [bind].
      apply bind_ext. intros sl _.
      rewrite addC_ok by lia. cbn [bind].
      apply bind_ext. intros c' Ec'. unfold macsec_payload_slice in Sp, Lm.
      destruct (ms_payload m) as [e|ps]; [|reflexivity].
      apply IH.
      split; [rewrite (push_ext_offset _ _ _ _ _ Ec'); lia|exact (sub_of_bytes_ok _ _ Sp Hok)]. }
    destruct (ep_ether_type ep =? ET_ARP); [now apply slice_arpC_eq|].
    destruct (ep_ether_type ep =? ET_IPV4); [now apply slice_ipv4C_eq|].
    destruct (ep_ether_type ep =? ET_IPV6); [now apply slice_ipv6C_eq|]. reflexivity.
  Qed.

  Lemma slice_ethernet2C_eq c s : fits c s -> slice_ethernet2C M c s = slice_ethernet2 c s.
  Proof.
    intros (Fl & Hok). unfold slice_ethernet2C, slice_ethernet2.
    rewrite (map_addC_eq M HM _ 0 (c_offset c) (eo_eth2 s 0)) by lia.
    apply bind_ext. intros r Er. apply map_len_err_inv in Er.
    pose proof (eth2_plain_wf _ _ Er) as (-> & _).
    unfold Ethernet2Slice.from_slice_without_fcs in Er.
    destruct (s_len s <? 14) eqn:C; [discriminate|].
    apply bind_ext. intros ep Eep. unfold Ethernet2Slice.header_len.
    rewrite addC_ok by lia. cbn [bind]. unfold slice_ether_typeC, slice_ether_type.
    apply ether_loopC_eq.
    unfold Ethernet2Slice.payload in Eep. binv Eep et Eet. binv Eep pl Epl. injection Eep as <-.
    cbn [ep_slice]. unfold Ethernet2Slice.payload_slice in Epl. binv Epl n En.
    split; [cbn [set_link c_offset]; apply subU_inv in Epl; lia|exact (subU_bytes_ok _ _ _ _ Epl Hok)].
  Qed.

  Lemma slice_linux_sllC_eq c s : fits c s -> slice_linux_sllC M c s = slice_linux_sll c s.
  Proof.
    intros (Fl & Hok). unfold slice_linux_sllC, slice_linux_sll.
    rewrite (map_addC_eq M HM _ 0 (c_offset c) (eo_sll s 0)) by lia.
    apply bind_ext. intros (h, whole) Er. apply map_len_err_inv in Er.
    pose proof (sll_wf _ _ Er) as ((_ & L16) & Ew & _). cbn [fst snd] in *. subst whole.
    apply bind_ext. intros pt _. apply bind_ext. intros pl Epl.
    rewrite addC_ok by lia. cbn [bind].
    destruct pt; try reflexivity.
    unfold slice_ether_typeC, slice_ether_type. apply ether_loopC_eq. cbn [ep_slice].
    unfold LinuxSll.payload_slice in Epl. binv Epl n En.
    split; [cbn [set_link c_offset]; apply subU_inv in Epl; lia|exact (subU_bytes_ok _ _ _ _ Epl Hok)].
  Qed.
End CursorProofs.

Theorem no_offset_overflow : forall M bs et, 2 ^ 17 <= M -> bytes_ok bs -> len bs < M ->
  from_ethernetC M bs = SlicedPacket.from_ethernet bs /\
  from_linux_sllC M bs = SlicedPacket.from_linux_sll bs /\
  from_ether_typeC M et bs = SlicedPacket.from_ether_type et bs /\
  from_ipC M bs = SlicedPacket.from_ip bs.
Proof.
  intros M bs et HM Hok HL.
  assert (F : forall c, c_offset c = 0 -> fits (len bs) c (mk_slice bs)).
  { intros c E. split; [rewrite E; unfold s_len, mk_slice; cbn [snd]; lia|exact Hok]. }
  split; [apply (slice_ethernet2C_eq M HM (len bs) HL); now apply F|].
  split; [apply (slice_linux_sllC_eq M HM (len bs) HL); now apply F|].
  split; [|apply (slice_ipC_eq M HM (len bs) HL); now apply F].
  unfold from_ether_typeC, SlicedPacket.from_ether_type, slice_ether_typeC,
    SlicedPacketCursor.slice_ether_type.
  apply (ether_loopC_eq M HM (len bs) HL). cbn [ep_slice]. now apply F.
Qed.

(* hence no checked entry point reports an overflow, nor any other Bug *)
Corollary no_offset_overflow_nobug : forall M bs et, 2 ^ 17 <= M -> bytes_ok bs -> len bs < M ->
  nobug (from_ethernetC M bs) /\ nobug (from_linux_sllC M bs) /\
  nobug (from_ether_typeC M et bs) /\ nobug (from_ipC M bs).
Proof.
  intros M bs et HM Hok HL.
  destruct (no_offset_overflow M bs et HM Hok HL) as (E1 & E2 & E3 & E4).
  rewrite E1, E2, E3, E4.
  destruct (StrictProofs.strict_total bs et Hok) as ((r & Er & Nr) & T2 & T3 & T4).
  repeat split; try assumption.
  intros b Eb. apply (Nr b). rewrite <- Er, Eb. reflexivity.
Qed.

(* the 32-bit and the 64-bit usize *)
Corollary no_offset_overflow_32 : forall bs et, bytes_ok bs -> len bs < 2 ^ 32 ->
  from_ethernetC (2 ^ 32) bs = SlicedPacket.from_ethernet bs /\
  from_linux_sllC (2 ^ 32) bs = SlicedPacket.from_linux_sll bs /\
  from_ether_typeC (2 ^ 32) et bs = SlicedPacket.from_ether_type et bs /\
  from_ipC (2 ^ 32) bs = SlicedPacket.from_ip bs.
Proof.
  intros bs et. apply no_offset_overflow. vm_compute; discriminate.
Qed.

Corollary no_offset_overflow_64 : forall bs et, bytes_ok bs -> len bs < 2 ^ 64 ->
  from_ethernetC (2 ^ 64) bs = SlicedPacket.from_ethernet bs /\
  from_linux_sllC (2 ^ 64) bs = SlicedPacket.from_linux_sll bs /\
  from_ether_typeC (2 ^ 64) et bs = SlicedPacket.from_ether_type et bs /\
  from_ipC (2 ^ 64) bs = SlicedPacket.from_ip bs.
Proof.
  intros bs et. apply no_offset_overflow. vm_compute; discriminate.
Qed.

(* the checked copies are not the models by construction: with a usize too small for the
   input they do report the overflow.
   (a) Ethernet II + VLAN, usize of 16 values: `self.offset += vlan.header_len()` = 14 + 4;
   (b) Ethernet II + IPv6 (next header 60) + 1 byte, usize of 50 values: the LenError of the
       truncated destination options header is moved by 0 (walk), 40 (Ipv6Slice) and then
       `add_offset(self.offset)` = 40 + 14 overflows; with a 32-bit usize: the error, offset 54 *)
Definition ex_vlan_pkt : bytes :=
  [1;2;3;4;5;6; 7;8;9;10;11;12; 129;0;  0;5; 18;52;  0;0].
Definition ex_v6_cut_pkt : bytes :=
  [1;2;3;4;5;6; 7;8;9;10;11;12; 134;221] ++ [96;0;0;0; 0;0; 60; 64] ++ repeat 0 32%nat ++ [17].

Example offset_overflow_reachable :
  from_ethernetC 16 ex_vlan_pkt = Bug SITE_OVERFLOW /\
  (exists p, from_ethernetC (2 ^ 32) ex_vlan_pkt = Ok p /\ SlicedPacket.from_ethernet ex_vlan_pkt = Ok p) /\
  from_ethernetC 50 ex_v6_cut_pkt = Bug SITE_OVERFLOW /\
  from_ethernetC (2 ^ 32) ex_v6_cut_pkt = Err (ELen (mkLenError 8 1 LsSlice LyIpv6ExtHeader 54)) /\
  SlicedPacket.from_ethernet ex_v6_cut_pkt = Err (ELen (mkLenError 8 1 LsSlice LyIpv6ExtHeader 54)).
Proof.
  split; [vm_compute; reflexivity|]. split; [eexists; split; vm_compute; reflexivity|].
  vm_compute. repeat split.
Qed.

(* the constructors on their own (any slice, not only windows of a packet) *)
Theorem no_offset_overflow_ctors : forall M s, 2 ^ 17 <= M -> bytes_ok (snd s) ->
  ipv4_from_sliceC M s = Ipv4Slice.from_slice s /\
  (s_len s < M ->
   (forall nh, exts_from_sliceC M nh s = Ipv6ExtensionsSlice.from_slice nh s) /\
   ipv6_from_sliceC M s = Ipv6Slice.from_slice s /\
   ip_from_sliceC M s = IpSlice.from_slice s).
Proof.
  intros M s HM Hok. split; [now apply ipv4_from_sliceC_eq|]. intros L.
  split; [intros nh; now apply exts_from_sliceC_eq|].
  split; [now apply ipv6_from_sliceC_eq|now apply ip_from_sliceC_eq].
Qed.

(* the layer_start_offset of a LenError of the composite constructors lies inside the slice *)
Theorem len_error_offset_inside : forall s e,
  (Ipv4Slice.from_slice s = Err (ELen e) \/ Ipv6Slice.from_slice s = Err (ELen e) \/
   IpSlice.from_slice s = Err (ELen e) \/
   (exists nh, Ipv6ExtensionsSlice.from_slice nh s = Err (ELen e))) -> le_off e <= s_len s.
Proof.
  intros s e [H|[H|[H|(nh & H)]]].
  - exact (eo_ipv4 s e H).
  - exact (eo_ipv6 s e H).
  - exact (eo_ip s e H).
  - exact (eo_exts nh s e H).
Qed.
