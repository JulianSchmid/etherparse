(* Parse/HdrLaxProofs2.v -- the lax struct decoders (HdrLaxModel.v) against the lax slicing
   model cut at the first refilled IPv6 extension header (HdrLaxCut.v), continued:
     - the IPv6 extension chain: Ipv6Extensions::from_slice_lax (struct loop) in lockstep
       with Ipv6ExtensionsSlice::from_slice_lax (walk) up to the first refilled header;
     - the IPv6 arm of IpHeaders::from_slice_lax against the IPv6 arm of LaxIpSlice::from_slice;
     - IpHeaders::from_slice_lax against LaxIpSlice::from_slice (any first nibble), and the
       F11 class (first nibble 4, fewer than 20 bytes). *)
From Coq Require Import ZArith Lia ZifyN ZifyBool.
From EP Require Import Base.Bytes Parse.Types Parse.Slices Parse.Cursor Parse.View
  Parse.WireSpec Parse.Repr Parse.StrictProofs Parse.LaxSlices Parse.LaxCursor Parse.LaxView
  Parse.HdrModel Parse.HdrView Parse.HdrCut Parse.HdrProofs Parse.HdrProofs2 Parse.HdrLaxModel
  Parse.HdrLaxView Parse.HdrLaxProofs Parse.HdrLaxCut.
Import LaxSlicedPacketCursor.

Local Open Scope N_scope.

Lemma raw_no_content s c : Ipv6RawExtHeaderSlice.from_slice s <> Err (EContent c).
Proof.
  unfold Ipv6RawExtHeaderSlice.from_slice, lerr.
  destruct (s_len s <? 8) eqn:E; [discriminate|].
  destruct (rd (snd s) 1); cbn [bind]; [|discriminate].
  destruct (s_len s <? (n + 1) * 8) eqn:El; [discriminate|].
  rewrite subU_eq by lia. discriminate.
Qed.

Lemma frag_no_content s c : Ipv6FragmentHeaderSlice.from_slice s <> Err (EContent c).
Proof.
  unfold Ipv6FragmentHeaderSlice.from_slice, lerr.
  destruct (s_len s <? 8) eqn:E; [discriminate|]. rewrite subU_eq by lia. discriminate.
Qed.

(* content errors a lax extension walk can stop with *)
Definition stop_wf (st : option stop_error) : Prop :=
  match st with
  | Some (EContent c, _) => c = CeHopByHopNotAtStart \/ c = CeIpv6AuthZeroPayloadLen
  | _ => True
  end.

Definition lwalk_rel (base : slice) (h : res (exts6 * N * slice * option stop_error))
  (s : res (slice * N * bool * option stop_error)) : Prop :=
  match h, s with
  | Ok (x', nh', r', st'), Ok (r'', nh'', fr'', st'') =>
      r'' = r' /\ nh'' = nh' /\ st'' = st' /\ stop_wf st' /\
      (exists fl', inv6 base x' fl' fr'' r') /\ bytes_ok (snd r')
  | _, _ => False
  end.

(* a raw extension header at the front of rest: both sides consume it alike, or stop with
   the same length error *)
Lemma lraw_arm_agree base x rest nh fr ly
  (L : slice -> slice -> N -> res (exts6 * N * slice * option stop_error))
  (W : slice -> N -> res (slice * N * bool * option stop_error)) :
  bytes_ok (snd rest) -> s_len rest <= s_len base ->
  (forall st, stop_wf st -> lwalk_rel base (Ok (x, nh, rest, st)) (Ok (rest, nh, fr, st))) ->
  (forall h nh', 0 < s_len h <= s_len rest ->
     lwalk_rel base (L h (fst rest + s_len h, drop (s_len h) (snd rest)) nh')
                    (W (fst rest + s_len h, drop (s_len h) (snd rest)) nh')) ->
  lwalk_rel base
    match Ipv6RawExtHeaderSlice.from_slice rest with
    | Ok sl => let* r := LaxIpv6Extensions.raw_ok rest sl in let '(h, rest', nh') := r in L h rest' nh'
    | Err (ELen e) => let* st := LaxIpv6Extensions.len_stop base rest e ly in Ok (x, nh, rest, Some st)
    | Err (EContent _) => Bug SITE_UNWRAP
    | Bug b => Bug b
    end
    match Ipv6RawExtHeaderSlice.from_slice rest with
    | Ok sl =>
        let* n := subN (s_len rest) (s_len sl) in
        let* rest' := subU rest (s_len sl) n in
        let* nh' := Ipv6RawExtHeaderSlice.next_header sl in
        W rest' nh'
    | Err (ELen e) =>
        let* off := subN (s_len base) (s_len rest) in
        Ok (rest, nh, fr, Some (ELen (le_add_offset e off), ly))
    | Err (EContent _) => Bug SITE_UNWRAP
    | Bug b => Bug b
    end.
Proof.
  intros Hok Hle StopE Next.
  pose proof (raw_shape rest Hok) as Sh. pose proof (raw_no_content rest) as Nc.
  destruct (Ipv6RawExtHeaderSlice.from_slice rest) as [sl|[l|ce]|b];
    [| |now destruct (Nc ce)|contradiction].
  - destruct Sh as (S8 & Sle & _ & Sth). unfold LaxIpv6Extensions.raw_ok.
    rewrite (idx_from_eq _ _ Sle), (subN_ok _ _ Sle). cbn [bind]. rewrite (subU_rest _ _ Sle). cbn [bind].
    unfold Ipv6RawExtHeaderSlice.next_header. rdok sl 0. rewrite Sth. cbn [bind].
    apply Next. lia.
  - unfold LaxIpv6Extensions.len_stop. rewrite (subN_ok _ _ Hle). cbn [bind]. apply StopE. exact I.
Qed.

Lemma lwalk_agree fuel : forall base x rest nh fl fr,
  inv6 base x fl fr rest -> bytes_ok (snd rest) -> (N.to_nat (s_len rest) < fuel)%nat ->
  lwalk_rel base (LaxIpv6Extensions.loop fuel base x rest nh)
                 (LaxCut.walk true fuel (s_len base) rest nh fr fl).
Proof.
  induction fuel as [|f IH]; intros base x rest nh fl fr Hinv Hok Hfuel; [lia|].
  assert (StopE : forall st, stop_wf st ->
            lwalk_rel base (Ok (x, nh, rest, st)) (Ok (rest, nh, fr, st))).
  { intros st Hst. unfold lwalk_rel. split; [reflexivity|]. split; [reflexivity|]. split; [reflexivity|].
    split; [exact Hst|]. split; [now exists fl|assumption]. }
  pose proof (inv6_rest_le _ _ _ _ _ Hinv) as Hle.
  assert (Next : forall h nh' fr', exts6_taken x nh = false -> is_ext_number nh = true ->
            0 < s_len h <= s_len rest ->
            (if nh =? IPN_FRAG
             then exists fb, Ipv6FragmentHeaderSlice.is_fragmenting_payload h = Ok fb /\ fr' = fr || fb
             else fr' = fr) ->
            lwalk_rel base
              (LaxIpv6Extensions.loop f base (exts6_put x nh h)
                 (fst rest + s_len h, drop (s_len h) (snd rest)) nh')
              (LaxCut.walk true f (s_len base) (fst rest + s_len h, drop (s_len h) (snd rest)) nh' fr'
                 (fill_add fl nh))).
  { intros h nh' fr' Hfree Hext Hlen Hfr.
    apply IH; [now apply (inv6_put _ _ _ fr)|now apply bytes_ok_rest|rewrite s_len_drop; lia]. }
  cbn [LaxIpv6Extensions.loop LaxCut.walk andb].
  rewrite (inv6_refilled _ _ _ _ _ nh Hinv). unfold exts6_taken. clear Hinv.
  destruct x as [hb de ro fd fg au]. cbn [x_hbh x_dest x_route x_fdest x_frag x_auth].
  destruct (nh =? IPN_HOP_BY_HOP) eqn:E0.
  { apply N.eqb_eq in E0. subst nh. apply StopE. cbn. auto. }
  destruct (nh =? IPN_DEST_OPTIONS) eqn:E60.
  { apply N.eqb_eq in E60. subst nh. cbn [orb].
    destruct ro as [rt|]; cbn [is_some].
    - destruct fd; [apply StopE; exact I|]. apply lraw_arm_agree; auto.
      intros h nh' Hh. now apply (Next h nh' fr).
    - destruct de; [apply StopE; exact I|]. apply lraw_arm_agree; auto.
      intros h nh' Hh. now apply (Next h nh' fr). }
  destruct (nh =? IPN_ROUTE) eqn:E43.
  { apply N.eqb_eq in E43. subst nh. cbn [orb].
    destruct ro; [apply StopE; exact I|]. apply lraw_arm_agree; auto.
    intros h nh' Hh. now apply (Next h nh' fr). }
  cbn [orb].
  destruct (nh =? IPN_FRAG) eqn:E44.
  { apply N.eqb_eq in E44. subst nh. destruct fg; [apply StopE; exact I|]. cbn [is_some].
    pose proof (frag_shape rest) as Sh. pose proof (frag_no_content rest) as Nc.
    destruct (Ipv6FragmentHeaderSlice.from_slice rest) as [sl|[l|ce]|b];
      [| |now destruct (Nc ce)|contradiction].
    - destruct Sh as (S8 & Sle & _).
      rewrite S8. rewrite (idx_from_eq _ _ Sle), (subN_ok _ _ Sle). cbn [bind]. rewrite (subU_rest _ _ Sle). cbn [bind].
      unfold Ipv6FragmentHeaderSlice.next_header. rdok sl 0.
      destruct (frag_is_fragmenting_ok sl S8) as (fb & Efb). rewrite Efb. cbn [bind]. rewrite <- S8.
      apply (Next sl v (fr || fb)); [reflexivity|reflexivity|lia|]. exists fb. now split.
    - unfold LaxIpv6Extensions.len_stop. rewrite (subN_ok _ _ Hle). cbn [bind]. apply StopE. exact I. }
  destruct (nh =? IPN_AUTH) eqn:E51; [|apply StopE; exact I].
  apply N.eqb_eq in E51. subst nh. destruct au; [apply StopE; exact I|]. cbn [is_some].
  pose proof (auth_shape rest Hok) as Sh.
  destruct (IpAuthHeaderSlice.from_slice rest) as [sl|[l|ce]|b]; [| | |contradiction].
  - destruct Sh as (S12 & Sle & _ & Sth & _).
    rewrite (idx_from_eq _ _ Sle), (subN_ok _ _ Sle). cbn [bind]. rewrite (subU_rest _ _ Sle). cbn [bind].
    unfold IpAuthHeaderSlice.next_header. rdok sl 0. rewrite Sth. cbn [bind].
    apply (Next sl v fr); [reflexivity|reflexivity|lia|reflexivity].
  - unfold LaxIpv6Extensions.len_stop. rewrite (subN_ok _ _ Hle). cbn [bind]. apply StopE. exact I.
  - apply StopE. cbn. auto.
Qed.

Definition lexts_rel (nh0 : N) (hp : slice) (h : res (exts6 * N * slice * option stop_error))
  (s : res (ipv6_exts_slice * N * slice * option stop_error)) : Prop :=
  match h, s with
  | Ok (x, nh', r, st), Ok (xs, nh'', r', st') =>
      r' = r /\ nh'' = nh' /\ st' = st /\ stop_wf st /\
      Ipv6Extensions.is_fragmenting_payload x = Ok (x6_fragmented xs) /\
      win_of (x6_slice xs) = (s_off hp, exts6_len x) /\
      x6_first xs = (if exts6_any x then Some nh0 else None) /\ s_off hp <= s_off r
  | _, _ => False
  end.

Lemma lexts_end nh0 hp h w :
  lwalk_rel hp h w ->
  lexts_rel nh0 hp h
    (let* w' := w in
     let '(rest, next_header, fragmented, error) := w' in
     let* used := subN (s_len hp) (s_len rest) in
     let* sl := (if used <=? s_len hp then Ok (fst hp, take used (snd hp)) else Bug SITE_INDEX) in
     Ok (mkIpv6Exts (if negb (s_len rest =? s_len hp) then Some nh0 else None) fragmented sl,
         next_header, rest, error)).
Proof.
  unfold lwalk_rel, lexts_rel.
  destruct h as [[[[x nh'] r] st]|e|b]; destruct w as [[[[r'' nh''] fr''] st'']|e'|b']; cbn [bind]; try tauto.
  intros (-> & -> & -> & Hst & (fl' & I) & Hok).
  destruct (inv6_consumed _ _ _ _ _ nh0 I) as (Le & Used & Ule & First & Off).
  destruct I as (_ & _ & _ & _ & _ & I6 & _).
  rewrite (subN_ok _ _ Le), Used. cbn [bind].
  destruct (exts6_len x <=? s_len hp) eqn:E; [|lia]. cbn [bind x6_fragmented x6_slice x6_first].
  rewrite (win_take _ _ _ Ule).
  split; [reflexivity|]. split; [reflexivity|]. split; [reflexivity|]. split; [exact Hst|].
  split; [exact I6|]. split; [reflexivity|]. split; [exact First|lia].
Qed.

Lemma lexts_agree nh0 hp : bytes_ok (snd hp) ->
  lexts_rel nh0 hp (LaxIpv6Extensions.from_slice_lax nh0 hp) (LaxCut.exts_from_slice_lax true nh0 hp).
Proof.
  intros Hok. unfold LaxIpv6Extensions.from_slice_lax, LaxCut.exts_from_slice_lax.
  assert (Hf : forall r : slice, s_len r <= s_len hp -> (N.to_nat (s_len r) < S (length (snd hp)))%nat).
  { intros r H. unfold s_len, len in *. lia. }
  destruct (IPN_HOP_BY_HOP =? nh0).
  - pose proof (raw_shape hp Hok) as Sh. pose proof (raw_no_content hp) as Nc.
    destruct (Ipv6RawExtHeaderSlice.from_slice hp) as [sl|[l|ce]|b]; cbn [bind]; try contradiction;
      [| |now destruct (Nc ce)].
    + destruct Sh as (S8 & Sle & Soff & Sth).
      unfold LaxIpv6Extensions.raw_ok, idx_from.
      destruct (s_len sl <=? s_len hp) eqn:E; [|lia]. cbn [bind].
      unfold Ipv6RawExtHeaderSlice.next_header. rdok sl 0. rewrite Sth. cbn [bind].
      apply lexts_end. apply lwalk_agree; [apply inv6_hbh; lia|now apply bytes_ok_rest|].
      apply Hf. rewrite s_len_drop. lia.
    + (* the hop-by-hop header itself is cut short: nothing decoded *)
      rewrite subN_ok by lia. cbn [bind].
      destruct (s_len hp - s_len hp <=? s_len hp) eqn:E; [|lia]. cbn [bind].
      unfold lexts_rel. cbn [x6_fragmented x6_slice x6_first].
      split; [reflexivity|]. split; [reflexivity|]. split; [reflexivity|]. split; [exact I|].
      split; [reflexivity|]. split.
      * rewrite win_take by lia. unfold s_off, exts6_len. cbn. f_equal. lia.
      * split; [|lia]. rewrite N.eqb_refl. reflexivity.
  - cbn [bind]. apply lexts_end. apply lwalk_agree; [apply inv6_empty|assumption|apply Hf; lia].
Qed.

Definition lipd_rel (s : slice) (h : res (ip_headers * lax_ip_payload * option stop_error))
  (r : res (lax_ip_slice * option stop_error)) : Prop :=
  match h, r with
  | Ok (ih, p, st), Ok (i, st') =>
      p = LaxIpSlice.payload i /\
      hview_net (HnIp ih) = Ok (lconv_net (net_of_ip i)) /\
      st = option_map (conv_ext_stop (is_v4 i) (fun l => l)) st' /\
      s_off s <= s_off (lipp_slice p) /\
      (forall l ly, st = Some (ELen l, ly) -> le_src l = lipp_src p)
  | Err e, Err e' => e = e'
  | _, _ => False
  end.

Lemma lip4_lipd s h r : lip4_rel s h r -> lipd_rel s h r.
Proof.
  unfold lip4_rel, lipd_rel.
  destruct h as [[[ih p] st]|e|b]; destruct r as [[i st']|e'|b']; auto.
  intros (v & -> & -> & -> & -> & Hoff & Hsrc). cbn [LaxIpSlice.payload net_of_ip is_v4 lconv_net hview_net].
  repeat split; auto.
Qed.

Lemma conv_ext_stop_id6 st : stop_wf st ->
  option_map (conv_ext_stop false (fun l => l)) st = st.
Proof.
  destruct st as [[[l|c] ly]|]; cbn; try reflexivity.
  intros [-> | ->]; reflexivity.
Qed.

(* the part of the IPv6 arm behind the payload selection *)
Lemma lax_v6_tail s header hp src inc :
  bytes_ok (snd hp) -> s_len header = 40 -> s_off hp = s_off header + 40 -> s_off s <= s_off hp ->
  lipd_rel s
    (let* nh0 := Ipv6HeaderSlice.next_header header in
     let* x := LaxIpv6Extensions.from_slice_lax nh0 hp in
     let '(exts, next_header, rest, stop) := x in
     let stop' :=
       match stop with
       | Some (ELen l, ly) => Some (ELen (le_set_src (le_add_offset l 40) src), ly)
       | o => o
       end in
     let* fragmented := Ipv6Extensions.is_fragmenting_payload exts in
     Ok (IhV6 header exts, mkLaxIpp inc next_header fragmented src rest, stop'))
    (let* r := LaxCut.v6_finish true header hp src inc in
     let '(v, stop) := r in
     Ok (LIpV6 v, stop)).
Proof.
  intros Hok H40 Hoff Hs. unfold LaxCut.v6_finish, Ipv6HeaderSlice.next_header.
  rdok header 6.
  pose proof (lexts_agree v hp Hok) as X. unfold lexts_rel in X.
  destruct (LaxIpv6Extensions.from_slice_lax v hp) as [[[[x nh'] r] st]|e|b];
    destruct (LaxCut.exts_from_slice_lax true v hp) as [[[[xs nh''] r'] st']|e'|b']; cbn [bind]; try contradiction.
  destruct X as (-> & -> & -> & Hst & Fr & Win & First & Off). rewrite Fr. cbn [bind].
  unfold lipd_rel. cbn [LaxIpSlice.payload lv6_payload net_of_ip is_v4 lipp_slice lipp_src].
  split; [reflexivity|]. split.
  { unfold hview_net, lconv_net, Ipv6HeaderSlice.next_header. rewrite E. cbn [bind]. rewrite Fr. cbn [bind].
    cbn [lv6_header lv6_exts]. rewrite Win, First, Hoff. reflexivity. }
  split.
  { destruct st as [[[l|c] ly]|]; cbn [option_map conv_ext_stop].
    - destruct l as [rq ln sr y o]. reflexivity.
    - cbn in Hst. destruct Hst as [-> | ->]; reflexivity.
    - reflexivity. }
  split; [lia|].
  intros l ly El. destruct st as [[[l0|c] ly0]|]; try discriminate. injection El as <- _. reflexivity.
Qed.

Lemma lax_ip_agree s :
  bytes_ok (snd s) ->
  (forall b0, rd (snd s) 0 = Some b0 -> N.shiftr b0 4 = 4 -> 20 <= s_len s) ->
  lipd_rel s (LaxIpHeaders.from_slice_lax s) (LaxCut.ip_from_slice true s).
Proof.
  intros Hok Hf.
  destruct (s_len s =? 0) eqn:E0.
  { unfold LaxIpHeaders.from_slice_lax, LaxCut.ip_from_slice. rewrite E0. reflexivity. }
  destruct (rd_lt_Some (snd s) 0) as (b0 & Eb); [unfold s_len in *; lia|].
  destruct (N.shiftr b0 4 =? 4) eqn:V4.
  { assert (H20 : 20 <= s_len s) by (apply (Hf b0); [exact Eb|lia]).
    apply N.eqb_eq in V4.
    pose proof (lax_ip4_agree s b0 Hok Eb V4 H20) as A. apply lip4_lipd in A.
    replace (LaxCut.ip_from_slice true s) with (LaxIpSlice.from_slice s); [exact A|].
    unfold LaxCut.ip_from_slice, LaxIpSlice.from_slice. rewrite E0. unfold rdU. rewrite Eb. cbn [bind].
    rewrite V4. reflexivity. }
  unfold LaxIpHeaders.from_slice_lax, LaxCut.ip_from_slice. rewrite E0.
  unfold rdU. rewrite Eb. cbn [bind]. rewrite V4.
  destruct (N.shiftr b0 4 =? 6) eqn:V6; [|reflexivity].
  destruct (s_len s <? 40) eqn:E40; [reflexivity|].
  rewrite subU_eq by lia. cbn [bind].
  set (header := (fst s + 0, take 40 (drop 0 (snd s)))).
  assert (Hh : s_len header = 40) by (apply s_len_sub; lia).
  unfold Ipv6HeaderSlice.payload_length.
  destruct (rd16_ok header 4) as (pl & Epl); [lia|]. rewrite Epl. cbn [bind].
  assert (Hsub : forall k n, bytes_ok (snd (fst s + k, take n (drop k (snd s))))).
  { intros k n. now apply bytes_ok_window. }
  destruct ((0 =? pl) && (40 <? s_len s)) eqn:Ez.
  - rewrite subN_ok by lia. cbn [bind]. rewrite subU_eq by lia. cbn [bind].
    apply lax_v6_tail; auto; unfold s_off, header; cbn [fst]; lia.
  - rewrite subN_ok by lia. cbn [bind].
    destruct (s_len s - 40 <? pl) eqn:El.
    + cbn [bind]. rewrite subU_eq by lia. cbn [bind].
      apply lax_v6_tail; auto; unfold s_off, header; cbn [fst]; lia.
    + rewrite subU_eq by lia. cbn [bind].
      apply lax_v6_tail; auto; unfold s_off, header; cbn [fst]; lia.
Qed.

Lemma lax_ip_f11 s b0 cut :
  rd (snd s) 0 = Some b0 -> N.shiftr b0 4 = 4 -> s_len s < 20 ->
  exists e e', LaxIpHeaders.from_slice_lax s = Err e /\ LaxCut.ip_from_slice cut s = Err e' /\
    e = ELen (mkLenError 20 (s_len s) LsSlice LyIpv4Header 0) /\
    ((exists i, i < 5 /\ e' = EContent (CeIpIhl i)) \/
     (exists hl, 20 <= hl /\ e' = ELen (mkLenError hl (s_len s) LsSlice LyIpv4Header 0))).
Proof.
  intros Eb V4 L.
  assert (E0 : (s_len s =? 0) = false).
  { unfold s_len, rd in *. destruct (snd s); [discriminate|]. rewrite len_cons. lia. }
  unfold LaxIpHeaders.from_slice_lax, LaxCut.ip_from_slice. rewrite E0. unfold rdU. rewrite Eb. cbn [bind].
  rewrite V4. change (4 =? 4) with true. cbn iota.
  destruct (s_len s <? 20) eqn:E20; [|lia].
  destruct (N.land b0 15 <? 5) eqn:Ei.
  - eexists. eexists. split; [reflexivity|].
    split; [reflexivity|]. split; [reflexivity|]. left. eexists. split; [|reflexivity]. lia.
  - destruct (s_len s <? N.land b0 15 * 4) eqn:El; [|lia].
    eexists. eexists. split; [reflexivity|].
    split; [reflexivity|]. split; [reflexivity|]. right. eexists. split; [|reflexivity]. lia.
Qed.
