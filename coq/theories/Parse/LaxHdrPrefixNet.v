(* Parse/LaxHdrPrefixNet.v -- C05 clause (b) for LaxPacketHeaders, faults INSIDE the network layer.

   Composition, no new model:
     C05_lax_prefix_net             strict slicing fails  ->  pwire2 (strict reference decoder instrumented
                                    with the network layer as far as it decodes) / lax slicing
                                    (Parse/LaxPrefixNet.v, `net_outcome`)
     C04_lax_headers_eq_slices      lax slicing cut at a refilled extension header = LaxPacketHeaders
                                    (`lhagree true`, Parse/HdrLaxProofs3.v)
     C04_lax_cut_is_slicing_*       the cut lax slicing IS lax slicing unless `lax_stopped_at_ext`
     C04_lax_ipv6_slots_in_order    the struct's filled slots = the extension headers the lax slicing
                                    result iterates to (Parse/HdrLaxSlots2.v)

   Result (`hdr_prefix_net_ok`): when strict slicing fails, LaxPacketHeaders returns Ok p with view v and
     - pwire2 = P2RejNet _ n tag e_ref (fault at an authentication / extension header behind a good IP
       header): v has exactly the network HEADER windows of n (IP header; IPv4: no authentication header;
       IPv6: first next-header, fragmentation flag, window of the extension headers decoded in front of the
       faulty one), no transport header, the payload is the IP payload descriptor of n (incomplete flag, ip
       number that announced the faulty header, fragmentation flag, length source, window from the faulty
       header on), the stop error sits on the layer tag `tag` and its record is e_ref -- or e_ref with the
       length source replaced by Slice (`stop_same`; observation (C) of notes/C04.md reaches into the
       network layer: witness lax_hdr_stop_src_refuted below);
     - pwire2 = P2Fb _ _ inc resumed (IPv4 total length / IPv6 payload length fallback): v has the network
       header windows of the network layer n of the resumed strict decoding, the payload of v is flagged
       incomplete exactly as `inc` says, and if the resumed decoding fails inside the network layer the
       previous item holds for it; if it fails behind the network layer, `hdr_outcome` of HdrLaxC05.v;
     - for an IPv6 network layer the struct's slots hold exactly the extension headers the lax slicing
       result iterates to (`lax_slots_in_order` against the UNCUT LaxSlicedPacket result), i.e. the
       headers decoded in front of the fault, whose window is the extension window of n.
   Stated outside the documented struct-decoding exception (`lax_stopped_at_ext (LaxCut.from_* true bs) =
   false`).  The F11 clause of `stop_rel` cannot fire here: every P2RejNet of pwire2, nested ones included,
   carries an error with `in_net_layer = true` (`nested_class`), an F11 pair never does. *)
From Coq Require Import ZArith Lia ZifyN ZifyBool.
From EP Require Import Base.Bytes Parse.Types Parse.Slices Parse.Cursor Parse.View
  Parse.WireSpec Parse.Repr Parse.StrictProofs Parse.LaxSlices Parse.LaxCursor Parse.LaxView
  Parse.LaxProofs Parse.LaxFacts Parse.LaxWire Parse.LaxWireProofs Parse.LaxWireFacts Parse.LaxPrefix
  Parse.LaxHdrFacts Parse.LaxWire2 Parse.LaxPrefixNet
  Parse.HdrModel Parse.HdrView Parse.HdrCut Parse.HdrProofs Parse.HdrProofs2 Parse.HdrProofs3 Parse.HdrLaxModel Parse.HdrLaxView Parse.HdrLaxProofs Parse.HdrLaxCut
  Parse.HdrLaxCutProofs Parse.HdrLaxProofs2 Parse.HdrLaxProofs3 Parse.HdrLaxC05
  Parse.Access Parse.HdrSlots Parse.HdrLaxSlots Parse.HdrLaxSlots2.
Local Open Scope N_scope.

Fixpoint nested_class (pw : pres2) : Prop :=
  match pw with
  | P2RejNet _ _ _ e => in_net_layer e = true
  | P2Fb _ _ _ r => nested_class r
  | _ => True
  end.

Lemma sorted_nested pw : sorted pw -> nested_class pw.
Proof. induction pw; cbn [sorted nested_class]; try tauto. Qed.

Theorem pwire2_nested_class bs et :
  nested_class (pwire2_ethernet bs) /\ nested_class (pwire2_ether_type bs et) /\
  nested_class (pwire2_from_ip bs).
Proof.
  destruct (pwire2_sorted bs et) as (S1 & S2 & S3).
  split; [|split]; now apply sorted_nested.
Qed.

(* header windows of a network layer as pwire2 / lwire hand it back; its payload descriptor *)
Definition lnet_hdr (n : lvnet) : hvnet := net_hdr (strictify_net n).
Definition lnet_payload (n : lvnet) : lhvpayload :=
  match n with
  | LVIpv4 _ _ p | LVIpv6 _ _ _ _ p => LHvpIp p
  | LVArp _ => LHvpEmpty
  end.

(* the stop error record of the struct family against the one of the reference decoder: equal, or
   equal up to the struct family naming Slice as length source (lerr_rel of Parse/HdrLaxCut.v) *)
Definition stop_same (eh es : slice_error) : Prop :=
  match eh, es with
  | ELen lh, ELen ls => lerr_rel lh ls
  | EContent c, EContent c' => c = c'
  | _, _ => False
  end.

Definition hdr_stopped_in_net (v : lhview) (n : lvnet) (tag : layer) (e : slice_error) : Prop :=
  lhv_net v = Some (lnet_hdr n) /\ lhv_tr v = None /\ lhv_payload v = lnet_payload n /\
  exists e', lhv_stop v = Some (e', tag) /\ stop_same e' e.

Definition hdr_net_outcome (pw : pres2) (v : lhview) : Prop :=
  match pw with
  | P2RejNet _ n tag e => hdr_stopped_in_net v n tag e
  | P2Fb _ _ inc resumed =>
      exists n, lhv_net v = Some (lnet_hdr n) /\ net_flags n = Some (inc, LsSlice) /\
        payload_inc (lhv_payload v) = inc /\
        match resumed with
        | P2RejNet _ n' tag e' => n' = n /\ hdr_stopped_in_net v n tag e'
        | P2Acc q' => v_net q' = Some (strictify_net n)
        | P2Rej q' e' => v_net q' = Some (strictify_net n) /\ hdr_outcome e' v
        | _ => False
        end
  | _ => True
  end.

Definition hdr_prefix_net_ok (strict : res sliced_packet) (pw : pres2)
  (laxcut lax : res lax_sliced_packet) (lh : res lhpacket) : Prop :=
  forall e, strict = Err e -> lax_stopped_at_ext laxcut = false ->
  exists e_ref r' p v,
    rej2 pw = Some e_ref /\ res_rel (VErr e) (VErr e_ref) /\ is_net_rej pw = in_net_layer e /\
    lax = Ok r' /\ net_outcome lax_outcome pw (lview r') /\
    lh = Ok p /\ lhview_of p = Ok v /\ hdr_net_outcome pw v /\
    lax_slots_in_order (Ok p) (Ok r').

Lemma lconv_net_is sp v' n : lconv sp = Ok v' -> lv_net (lview sp) = Some n ->
  lhv_net v' = Some (lnet_hdr n).
Proof.
  intros Hc Hn. destruct (lconv_fields sp v' Hc) as (_ & F2 & _ & _). rewrite F2.
  unfold lview in Hn. cbn [lv_net] in Hn.
  destruct (lsp_net sp) as [ns|]; cbn [option_map] in *; [|discriminate]. injection Hn as <-.
  now rewrite lconv_net_hdr.
Qed.

Lemma lconv_no_transport sp v' n : lconv sp = Ok v' -> lv_net (lview sp) = Some n ->
  lv_transport (lview sp) = None -> lhv_tr v' = None /\ lhv_payload v' = lnet_payload n.
Proof.
  unfold lview. cbn [lv_net lv_transport]. unfold lconv. intros Hc Hn Ht.
  destruct (lsp_transport sp) as [t|]; [discriminate|].
  destruct (lsp_net sp) as [[w|w|a]|]; cbn [option_map] in Hn; try discriminate;
    injection Hn as <-; cbn [bind fst snd] in Hc; injection Hc as <-; split; reflexivity.
Qed.

Lemma lconv_payload_inc sp v' n fl : lconv sp = Ok v' -> lv_net (lview sp) = Some n ->
  net_flags n = Some fl -> payload_inc (lhv_payload v') = fst fl.
Proof.
  unfold lview. cbn [lv_net]. unfold lconv. intros Hc Hn Hf.
  destruct (lsp_net sp) as [[w|w|a]|]; cbn [option_map] in Hn; try discriminate; injection Hn as <-;
    cbn [lview_net net_flags] in Hf; try discriminate.
  - unfold lview_v4 in Hf. cbn [net_flags] in Hf. injection Hf as <-. cbn [fst lnp] in *.
    destruct (lsp_transport sp) as [[s|hl s|s|s]|]; cbn [lconv_tr bind fst snd] in Hc.
    + injection Hc as <-. reflexivity.
    + injection Hc as <-. reflexivity.
    + destruct (Icmpv4Acc.header_len s); cbn [bind fst snd] in Hc; try discriminate. injection Hc as <-. reflexivity.
    + injection Hc as <-. reflexivity.
    + injection Hc as <-. reflexivity.
  - unfold lview_v6 in Hf. cbn [net_flags] in Hf. injection Hf as <-. cbn [fst lnp] in *.
    destruct (lsp_transport sp) as [[s|hl s|s|s]|]; cbn [lconv_tr bind fst snd] in Hc.
    + injection Hc as <-. reflexivity.
    + injection Hc as <-. reflexivity.
    + destruct (Icmpv4Acc.header_len s); cbn [bind fst snd] in Hc; try discriminate. injection Hc as <-. reflexivity.
    + injection Hc as <-. reflexivity.
    + injection Hc as <-. reflexivity.
Qed.

Lemma f11_pair_not_net eh es : f11_pair eh es -> in_net_layer es = true -> False.
Proof.
  intros (n & off & _ & _ & [(i & _ & ->)|(hl & src & _ & ->)]); cbn; discriminate.
Qed.

Lemma hdr_stopped_of sp v v' n tag e :
  stopped_in_net (lview sp) n tag e -> in_net_layer e = true ->
  lconv sp = Ok v' -> lhv_rel true sp v v' -> hdr_stopped_in_net v n tag e.
Proof.
  intros (Hn & Hs & Ht) Hc Hv (R1 & R2 & R3 & R4 & R5 & R6).
  destruct (lconv_no_transport sp v' n Hv Hn Ht) as (T1 & T2).
  destruct (lconv_fields sp v' Hv) as (_ & _ & _ & F4).
  split; [rewrite R3; now apply (lconv_net_is sp)|]. split; [now rewrite R4|].
  split.
  { rewrite R5, T2. destruct n; reflexivity. }
  unfold lview in Hs. cbn [lv_stop] in Hs. rewrite F4, Hs in R6. unfold stop_rel in R6.
  destruct (lhv_stop v) as [[eh ly]|]; [|contradiction].
  destruct R6 as (-> & [R|(_ & _ & R)]).
  - exists eh. split; [reflexivity|exact R].
  - exfalso. exact (f11_pair_not_net _ _ R Hc).
Qed.

Lemma hdr_net_outcome_of pw sp v v' :
  nested_class pw -> (forall e, rej2 pw = Some e -> is_net_rej pw = in_net_layer e) ->
  net_outcome lax_outcome pw (lview sp) -> lconv sp = Ok v' -> lhv_rel true sp v v' ->
  hdr_net_outcome pw v.
Proof.
  intros NC CL O Hv R. destruct pw as [pa|q e|q n tag e|q e inc r|s]; cbn [net_outcome hdr_net_outcome] in *; auto.
  - apply (hdr_stopped_of sp v v' n tag e O); auto.
  - destruct O as (n & Hn & Hf & O). exists n.
    pose proof R as (R1 & R2 & R3 & R4 & R5 & R6).
    split; [rewrite R3; now apply (lconv_net_is sp)|]. split; [exact Hf|].
    split.
    { rewrite R5, payload_inc_carry. now rewrite (lconv_payload_inc sp v' n _ Hv Hn Hf). }
    destruct r as [pa|q' e'|q' n' tag e'|q' e' inc' r'|s]; auto.
    + destruct O as (O1 & O2). split; [exact O1|]. now apply (hdr_outcome_of e' sp v v').
    + destruct O as (-> & O). split; [reflexivity|]. apply (hdr_stopped_of sp v v' n tag e' O); auto.
Qed.

Lemma hdr_prefix_net_core strict pw (cl ll : res lax_sliced_packet) lh :
  nested_class pw -> prefix_net_ok strict pw ll -> lhagree true lh cl ->
  (lax_stopped_at_ext cl = false -> cl = ll) -> lax_slots_in_order lh cl ->
  hdr_prefix_net_ok strict pw cl ll lh.
Proof.
  intros NC P L Hcut SL e He Hs. rewrite (Hcut Hs) in L, SL.
  destruct (P e He) as (e_ref & r' & Pw & Rr & Cl & -> & O).
  unfold lhagree in L. destruct lh as [p|e0|b]; try contradiction.
  destruct L as (v & v' & Hv & Hc & R).
  exists e_ref, r', p, v. repeat (split; [assumption || reflexivity|]).
  split; [|exact SL].
  apply (hdr_net_outcome_of pw r' v v'); auto.
  intros e1 E1. rewrite Pw in E1. injection E1 as <-. rewrite Cl. now apply in_net_layer_rel.
Qed.

(* (b), network layer, for LaxPacketHeaders *)
Theorem hdr_lax_prefix_net bs et : bytes_ok bs ->
  (14 <= len bs ->
   hdr_prefix_net_ok (SlicedPacket.from_ethernet bs) (pwire2_ethernet bs)
     (LaxCut.from_ethernet true bs) (LaxSlicedPacket.from_ethernet bs) (LaxPacketHeaders.from_ethernet bs)) /\
  hdr_prefix_net_ok (SlicedPacket.from_ether_type et bs) (pwire2_ether_type bs et)
    (LaxCut.from_ether_type true et bs) (LaxSlicedPacket.from_ether_type et bs)
    (LaxPacketHeaders.from_ether_type et bs) /\
  (ip_header_fault bs = None ->
   hdr_prefix_net_ok (SlicedPacket.from_ip bs) (pwire2_from_ip bs)
     (LaxCut.from_ip true bs) (LaxSlicedPacket.from_ip bs) (LaxPacketHeaders.from_ip bs)).
Proof.
  intros Hok. destruct (lax_prefix_net_packet bs et Hok) as (P1 & P2 & P3).
  destruct (pwire2_nested_class bs et) as (N1 & N2 & N3).
  destruct (lax_hdr_slots_in_order bs et Hok) as (S1 & S2 & S3). split; [|split].
  - intros H14. pose proof (lax_hdr_agree_ethernet bs Hok) as L.
    apply (hdr_prefix_net_core _ _ _ (LaxSlicedPacket.from_ethernet bs) _ N1 (P1 H14) L); [|exact S1].
    intros S. apply lcut_only_when_stopped_ethernet; [exact S|]. intros b. now apply (lhagree_nobug_s _ _ _ b L).
  - pose proof (lax_hdr_agree_ether_type et bs Hok) as L.
    apply (hdr_prefix_net_core _ _ _ (LaxSlicedPacket.from_ether_type et bs) _ N2 P2 L); [|exact S2].
    intros S. apply lcut_only_when_stopped_ether_type; [exact S|]. intros b. now apply (lhagree_nobug_s _ _ _ b L).
  - intros Hnf.
    assert (Hf : F11 bs = false).
    { destruct (F11 bs) eqn:Hf; [|reflexivity].
      destruct (lax_hdr_f11_both_err bs Hf) as (e & e' & _ & _ & E & _).
      apply lax_from_ip_err_iff in E. congruence. }
    pose proof (lax_hdr_agree_ip bs Hok Hf) as L.
    apply (hdr_prefix_net_core _ _ _ (LaxSlicedPacket.from_ip bs) _ N3 (P3 Hnf) L); [|exact S3].
    intros S. apply lcut_only_when_stopped_ip; [exact S|]. intros b. now apply (lhagree_nobug_s _ _ _ b L).
Qed.

(* Ethernet II / MACsec with short length 62 (8 byte header, 60 byte body) / IPv6 announcing a payload of 200
   bytes (fallback: 20 are there) / destination options (complete) / routing header announcing 16 bytes
   with 12 present.  The resumed strict reference decoding and LaxSlicedPacket name the MACsec short
   length as the source of the limit in the stop error record; LaxPacketHeaders names Slice.  Everything
   else agrees (network header windows, payload descriptor incl. its own length source Slice, layer tag). *)
Definition ex_macsec_v6_fb : bytes :=
  [1;2;3;4;5;6; 7;8;9;10;11;12; 136;229;
   0;62; 0;0;0;1; 134;221;
   96;0;0;0; 0;200; 60;64] ++ repeat 0 32 ++ [43;0;0;0;0;0;0;0] ++ [17;1;0;0;0;0;0;0;0;0;0;0].

Theorem lax_hdr_stop_src_refuted :
  exists bs q q' e n l,
    bytes_ok bs /\ 14 <= len bs /\ lax_stopped_at_ext (LaxCut.from_ethernet true bs) = false /\
    pwire2_ethernet bs = P2Fb q e true (P2RejNet q' n LyIpv6RouteHeader (ELen l)) /\
    le_src l = LsMacsecShortLength /\
    (exists r', LaxSlicedPacket.from_ethernet bs = Ok r' /\
                lsp_stop_err r' = Some (ELen l, LyIpv6RouteHeader)) /\
    exists p v, LaxPacketHeaders.from_ethernet bs = Ok p /\ lhview_of p = Ok v /\
                lhv_net v = Some (lnet_hdr n) /\ lhv_payload v = lnet_payload n /\
                lhv_stop v = Some (ELen (le_set_src l LsSlice), LyIpv6RouteHeader) /\
                ELen (le_set_src l LsSlice) <> ELen l.
Proof.
  exists ex_macsec_v6_fb. do 5 eexists.
  split; [apply bytes_okb_spec; vm_compute; reflexivity|].
  split; [vm_compute; discriminate|]. split; [vm_compute; reflexivity|].
  split; [vm_compute; reflexivity|]. split; [reflexivity|].
  split; [eexists; split; vm_compute; reflexivity|].
  eexists. eexists. split; [vm_compute; reflexivity|]. split; [vm_compute; reflexivity|].
  split; [reflexivity|]. split; [reflexivity|]. split; [reflexivity|]. discriminate.
Qed.
