(* Parse/LaxHdrPrefix2.v -- (b) for LaxPacketHeaders: when strict slicing rejects behind the first
   header, every layer in front of the fault is a layer of the LaxPacketHeaders view (`hdr_prefix2`).
   `hdr_prefix2` is `hdr_prefix` of HdrLaxC05.v without its conjunct
   `v_transport q = None \/ lhv_tr v <> None`: the instrumented strict reference decoder never puts a
   transport layer into the prefix of a rejection (`pwire_rej_no_transport`), so its first disjunct
   always holds and `hdr_prefix_ok2` states it outright. *)
From EP Require Import Base.Bytes Parse.Types Parse.Slices Parse.Cursor Parse.View
  Parse.WireSpec Parse.Repr Parse.StrictProofs Parse.LaxSlices Parse.LaxCursor Parse.LaxView
  Parse.LaxProofs Parse.LaxFacts Parse.LaxWire Parse.LaxWireProofs Parse.LaxPrefix Parse.LaxWire2
  Parse.LaxPrefixNet Parse.LaxHdrFacts
  Parse.HdrModel Parse.HdrView Parse.HdrCut Parse.HdrLaxModel Parse.HdrLaxView Parse.HdrLaxCut
  Parse.HdrLaxC05.
Local Open Scope N_scope.

Definition rej_nt (r : pres) : Prop := forall q e, r = PRej q e -> v_transport q = None.

Theorem pwire_rej_no_transport bs et :
  rej_nt (pwire_ethernet bs) /\ rej_nt (pwire_ether_type bs et) /\ rej_nt (pwire_from_ip bs).
Proof.
  destruct (pwire2_is_pwire bs et) as (<- & <- & <-). destruct (pwire2_sorted bs et) as (S1 & S2 & S3).
  split; [|split]; intros q e; now apply sorted_no_transport.
Qed.

(* every layer of q (the layers in front of the fault: link extensions, network header) is a layer of the
   LaxPacketHeaders view, with its header window *)
Definition hdr_prefix2 (q : vpacket) (v : lhview) : Prop :=
  (exists rest, lhv_exts v = map ext_hdr (v_exts q) ++ rest) /\
  (v_net q = None \/ option_map net_hdr (v_net q) = lhv_net v).

Definition hdr_prefix_ok2 (bs : bytes) (strict : res sliced_packet) (pw : pres)
  (laxcut : res lax_sliced_packet) (lh : res lhpacket) : Prop :=
  forall e, strict = Err e -> lax_stopped_at_ext laxcut = false ->
  exists q e_ref p v,
    pw = PRej q e_ref /\ v_transport q = None /\ res_rel (VErr e) (VErr e_ref) /\ lh = Ok p /\
    lhview_of p = Ok v /\
    (~ F10_class bs e_ref -> hdr_prefix2 q v /\ hdr_outcome e_ref v).

Lemma hdr_prefix_ok_weaken bs strict pw laxcut lh :
  rej_nt pw -> hdr_prefix_ok bs strict pw laxcut lh -> hdr_prefix_ok2 bs strict pw laxcut lh.
Proof.
  intros NT H e E S. destruct (H e E S) as (q & e_ref & p & v & Pw & Rr & Lh & Hv & Rest).
  exists q, e_ref, p, v. split; [exact Pw|]. split; [exact (NT q e_ref Pw)|].
  split; [exact Rr|]. split; [exact Lh|]. split; [exact Hv|].
  intros NF. destruct (Rest NF) as ((P1 & P2 & _) & O). split; [split; assumption|exact O].
Qed.

Theorem hdr_lax_prefix2 bs et : bytes_ok bs ->
  (14 <= len bs ->
   hdr_prefix_ok2 bs (SlicedPacket.from_ethernet bs) (pwire_ethernet bs)
     (LaxCut.from_ethernet true bs) (LaxPacketHeaders.from_ethernet bs)) /\
  hdr_prefix_ok2 bs (SlicedPacket.from_ether_type et bs) (pwire_ether_type bs et)
    (LaxCut.from_ether_type true et bs) (LaxPacketHeaders.from_ether_type et bs) /\
  (ip_header_fault bs = None ->
   hdr_prefix_ok2 bs (SlicedPacket.from_ip bs) (pwire_from_ip bs)
     (LaxCut.from_ip true bs) (LaxPacketHeaders.from_ip bs)).
Proof.
  intros Hok. destruct (hdr_lax_prefix bs et Hok) as (P1 & P2 & P3).
  destruct (pwire_rej_no_transport bs et) as (N1 & N2 & N3). split; [|split].
  - intros H14. apply hdr_prefix_ok_weaken; [exact N1|now apply P1].
  - apply hdr_prefix_ok_weaken; [exact N2|exact P2].
  - intros HF. apply hdr_prefix_ok_weaken; [exact N3|now apply P3].
Qed.
