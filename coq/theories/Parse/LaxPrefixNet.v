(* Parse/LaxPrefixNet.v -- (b) for faults inside the network layer: where `pwire2` (LaxWire2.v)
   rejects at an authentication / extension header behind a good IP header, the lax reference decoding
   has exactly the network layer `pwire2` hands back and the stop error (same record, the tag of the
   faulty header); at the two IP length fallbacks it has the network layer of the resumed strict
   decoding, flagged incomplete as (d) prescribes (`net_outcome`).  `pwire2` with the extra information
   forgotten is `pwire`, and it sorts its rejections by `in_net_layer` (`sorted`).  The walk from an IP
   header on is done once, for any property of the leaves (`w_*`), and serves LaxPrefixResumed.v too.
   Transferred to the strict and the lax model with StrictProofs.v / LaxWireProofs.v.
   Last, (d) for the single-layer LaxIpSlice::from_slice (`lax_ipslice_incomplete`), read off `n_ip`.
   Names: `r_x` the decoding resumed behind the network layer agrees with the strict tail
   (`tail_ok3`, `tail_outcome3`), `w_x` the walk through x for an arbitrary leaf property P,
   `n_x` = `w_x` at P := net_outcome lax_outcome. *)
From EP Require Import Base.Bytes Parse.Types Parse.Cursor Parse.View Parse.WireSpec Parse.Repr
  Parse.StrictProofs Parse.LaxSlices Parse.LaxCursor Parse.LaxView Parse.LaxProofs Parse.LaxFacts
  Parse.LaxWire Parse.LaxSecTag Parse.LaxWireProofs Parse.LaxWireFacts Parse.LaxPrefix Parse.LaxWire2.
From Coq Require Import ZArith Lia ZifyN ZifyBool.
Local Open Scope N_scope.

Lemma to_pres_of p r : to_pres (pres2_of p r) = pres_of p r.
Proof. destruct r; reflexivity. Qed.
Lemma to_pres_net p n tag r : to_pres (pres2_net p n tag r) = pres_of p r.
Proof. destruct r; reflexivity. Qed.

Lemma to_pres_ipv4_tail bs p inc pos hl lim' :
  to_pres (pwire2_ipv4_tail bs p LsIpv4HeaderTotalLen LsIpv4HeaderTotalLen inc pos hl lim')
  = pwire_ipv4_tail bs p pos hl lim'.
Proof.
  unfold pwire2_ipv4_tail, pwire_ipv4_tail, pwire_transport. cbv zeta.
  destruct (B bs (pos + 9) =? 51); [|apply to_pres_of].
  destruct (wire_ah bs CeAuthZeroPayloadLen LsIpv4HeaderTotalLen (pos + hl) lim');
    [apply to_pres_of|apply to_pres_net].
Qed.

Lemma to_pres_ipv4_body bs p src pos lim hl :
  to_pres (pwire2_ipv4_body bs p src pos lim hl) = pwire_ipv4_body bs p src pos lim hl.
Proof.
  unfold pwire2_ipv4_body, pwire_ipv4_body.
  destruct (W bs (pos + 2) <? hl); [reflexivity|].
  destruct (lim - pos <? W bs (pos + 2)); [reflexivity|]. apply to_pres_ipv4_tail.
Qed.

Lemma to_pres_ipv4 bs p src pos lim :
  to_pres (pwire2_ipv4 bs p src pos lim) = pwire_ipv4 bs p src pos lim.
Proof.
  unfold pwire2_ipv4, pwire_ipv4.
  destruct (lim - pos <? 20); [reflexivity|].
  destruct (negb (B bs pos / 16 =? 4)); [reflexivity|].
  destruct (B bs pos mod 16 <? 5); [reflexivity|].
  destruct (lim - pos <? B bs pos mod 16 * 4); [reflexivity|]. apply to_pres_ipv4_body.
Qed.

Lemma to_pres_ipv6_tail bs p esrc psrc inc pos lim' :
  to_pres (pwire2_ipv6_tail bs p esrc psrc inc pos lim') = pwire_ipv6_tail bs p esrc psrc pos lim'.
Proof.
  unfold pwire2_ipv6_tail, pwire_ipv6_tail, pwire_transport. cbv zeta.
  rewrite <- exts2_forget.
  destruct (wire_exts2 bs _ esrc (pos + 40) lim' (B bs (pos + 6))); cbn [forget_ch2];
    [apply to_pres_of|apply to_pres_net].
Qed.

Lemma to_pres_ipv6_body bs p src pos lim :
  to_pres (pwire2_ipv6_body bs p src pos lim) = pwire_ipv6_body bs p src pos lim.
Proof.
  unfold pwire2_ipv6_body, pwire_ipv6_body.
  destruct ((W bs (pos + 4) =? 0) && (40 <? lim - pos)); [apply to_pres_ipv6_tail|].
  destruct (lim - pos <? 40 + W bs (pos + 4)); [reflexivity|]. apply to_pres_ipv6_tail.
Qed.

Lemma to_pres_ipv6 bs p src pos lim :
  to_pres (pwire2_ipv6 bs p src pos lim) = pwire_ipv6 bs p src pos lim.
Proof.
  unfold pwire2_ipv6, pwire_ipv6.
  destruct (lim - pos <? 40); [reflexivity|].
  destruct (negb (B bs pos / 16 =? 6)); [reflexivity|]. apply to_pres_ipv6_body.
Qed.

Lemma to_pres_ip bs p src pos lim :
  to_pres (pwire2_ip bs p src pos lim) = pwire_ip bs p src pos lim.
Proof.
  unfold pwire2_ip, pwire_ip.
  destruct (lim - pos =? 0); [reflexivity|].
  destruct (B bs pos / 16 =? 4).
  { destruct (B bs pos mod 16 <? 5); [reflexivity|].
    destruct (lim - pos <? B bs pos mod 16 * 4); [reflexivity|]. apply to_pres_ipv4_body. }
  destruct (B bs pos / 16 =? 6); [|reflexivity].
  destruct (lim - pos <? 40); [reflexivity|]. apply to_pres_ipv6_body.
Qed.

Lemma to_pres_net_step bs p et src pos lim :
  to_pres (pwire2_net bs p et src pos lim) = pwire_net bs p et src pos lim.
Proof.
  unfold pwire2_net, pwire_net.
  destruct (et =? 2054); [apply to_pres_of|].
  destruct (et =? 2048); [apply to_pres_ipv4|].
  destruct (et =? 34525); [apply to_pres_ipv6|reflexivity].
Qed.

Lemma to_pres_ether bs cap : forall p et src pos lim,
  to_pres (pwire2_ether bs cap p et src pos lim) = pwire_ether bs cap p et src pos lim.
Proof.
  induction cap as [|cap IH]; intros p et src pos lim.
  - cbn [pwire2_ether pwire_ether].
    destruct (is_vlan et); [reflexivity|]. destruct (et =? 35045); [reflexivity|]. apply to_pres_net_step.
  - destruct (N.eqb_spec et 35045) as [->|Ne].
    { rewrite pwire2_ether_macsec, pwire_ether_macsec. now apply sectag_strict_map. }
    apply N.eqb_neq in Ne. cbn [pwire2_ether pwire_ether]. rewrite Ne.
    destruct (is_vlan et); [|apply to_pres_net_step].
    destruct (lim - pos <? 4); [reflexivity|apply IH].
Qed.

Theorem pwire2_is_pwire bs et :
  to_pres (pwire2_ethernet bs) = pwire_ethernet bs /\
  to_pres (pwire2_ether_type bs et) = pwire_ether_type bs et /\
  to_pres (pwire2_from_ip bs) = pwire_from_ip bs.
Proof.
  split; [|split].
  - unfold pwire2_ethernet, pwire_ethernet. destruct (n_bs bs <? 14); [reflexivity|apply to_pres_ether].
  - apply to_pres_ether.
  - apply to_pres_ip.
Qed.

(* pwire2 accepts / rejects exactly like the wire format specification, with the same error record *)
Theorem pwire2_sound bs et :
  forget (to_pres (pwire2_ethernet bs)) = wire_ethernet bs /\
  forget (to_pres (pwire2_ether_type bs et)) = wire_ether_type bs et /\
  forget (to_pres (pwire2_from_ip bs)) = wire_from_ip bs.
Proof.
  destruct (pwire2_is_pwire bs et) as (-> & -> & ->). apply pwire_sound.
Qed.

Lemma ah_dec_bound bs zero src pos lim l next :
  ah_dec bs zero src pos lim = inl (l, next) -> 12 <= l /\ l <= lim - pos.
Proof. apply ah_dec_inl. Qed.

Lemma wire_transport_err_class bs p ipn frag src pos lim :
  match wire_transport bs p ipn frag src pos lim with VErr e => in_net_layer e = false | _ => True end.
Proof.
  unfold wire_transport, wire_icmp4, wire_udp, wire_tcp, wire_icmp6, cut, bad.
  repeat match goal with |- context[if ?c then _ else _] => destruct c end; reflexivity.
Qed.

Lemma wire_ah_err_class bs zero src pos lim :
  (zero = CeAuthZeroPayloadLen \/ zero = CeIpv6AuthZeroPayloadLen) ->
  match wire_ah bs zero src pos lim with
  | AhErr r => exists e, r = VErr e /\ in_net_layer e = true
  | AhOk _ _ => True
  end.
Proof.
  intros Hz. unfold wire_ah, cut, bad.
  destruct (lim - pos <? 12). { eexists. split; reflexivity. }
  destruct (B bs (pos + 1) =? 0). { eexists. split; [reflexivity|]. destruct Hz as [->| ->]; reflexivity. }
  destruct (lim - pos <? (B bs (pos + 1) + 2) * 4); [|exact I]. eexists. split; reflexivity.
Qed.

Lemma chain2_err_class bs src fuel : forall pos lim nh frag,
  match wire_chain2 bs fuel src pos lim nh frag with
  | Ch2Err _ _ _ _ (VErr e) => in_net_layer e = true
  | _ => True
  end.
Proof.
  induction fuel as [|f IH]; intros pos lim nh frag; cbn [wire_chain2]; [exact I|].
  unfold cut, bad.
  destruct (nh =? 0); [reflexivity|].
  destruct ((nh =? 60) || (nh =? 43)).
  { destruct (lim - pos <? 8); [reflexivity|].
    destruct (lim - pos <? (B bs (pos + 1) + 1) * 8); [reflexivity|apply IH]. }
  destruct (nh =? 44).
  { destruct (lim - pos <? 8); [reflexivity|apply IH]. }
  destruct (nh =? 51); [|exact I].
  pose proof (wire_ah_err_class bs CeIpv6AuthZeroPayloadLen src pos lim (or_intror eq_refl)) as A.
  destruct (wire_ah bs CeIpv6AuthZeroPayloadLen src pos lim); [apply IH|].
  destruct A as (e & -> & A). exact A.
Qed.

Lemma exts2_err_class bs src fuel pos lim nh :
  match wire_exts2 bs fuel src pos lim nh with
  | Ch2Err _ _ _ _ (VErr e) => in_net_layer e = true
  | _ => True
  end.
Proof.
  unfold wire_exts2, cut. destruct (nh =? 0); [|apply chain2_err_class].
  destruct (lim - pos <? 8); [reflexivity|].
  destruct (lim - pos <? (B bs (pos + 1) + 1) * 8); [reflexivity|apply chain2_err_class].
Qed.

(* P2RejNet / P2Fb exactly for the errors that name a place inside the network layer, at every depth
   of resumption; and the prefix handed back never holds a transport layer *)
Fixpoint sorted (pw : pres2) : Prop :=
  match pw with
  | P2Rej p e => in_net_layer e = false /\ v_transport p = None
  | P2RejNet p _ _ e => in_net_layer e = true /\ v_transport p = None
  | P2Fb p e _ r => in_net_layer e = true /\ v_transport p = None /\ sorted r
  | P2Acc _ | P2Bug _ => True
  end.

Definition class_ok (pw : pres2) : Prop :=
  forall e, rej2 pw = Some e -> is_net_rej pw = in_net_layer e.

Lemma sorted_class pw : sorted pw -> class_ok pw.
Proof.
  intros S e E. destruct pw; cbn [rej2] in E; try discriminate; injection E as <-;
    cbn [sorted] in S; destruct S as (-> & _); reflexivity.
Qed.

Lemma sorted_no_transport pw q e : sorted pw -> to_pres pw = PRej q e -> v_transport q = None.
Proof.
  intros S E. destruct pw; cbn [to_pres] in E; try discriminate; injection E as <- _;
    cbn [sorted] in S; tauto.
Qed.

Lemma sorted_of p r :
  v_transport p = None -> match r with VErr e => in_net_layer e = false | _ => True end ->
  sorted (pres2_of p r).
Proof. intros H C. destruct r; cbn [pres2_of sorted]; auto. Qed.

Lemma sorted_netr p n tag r :
  v_transport p = None -> match r with VErr e => in_net_layer e = true | _ => True end ->
  sorted (pres2_net p n tag r).
Proof. intros H C. destruct r; cbn [pres2_net sorted]; auto. Qed.

Lemma wire_arp_err_class bs p src pos lim :
  match wire_arp bs p src pos lim with VErr e => in_net_layer e = false | _ => True end.
Proof.
  unfold wire_arp, cut. destruct (lim - pos <? 8); [reflexivity|].
  destruct (lim - pos <? _); [reflexivity|exact I].
Qed.

Section Sorted.
  Variables (bs : bytes) (p : vpacket).
  Hypothesis Hp : v_transport p = None.

  Lemma sorted_transport n ipn frag src pos lim :
    sorted (pres2_of (with_net p n) (wire_transport bs (with_net p n) ipn frag src pos lim)).
  Proof.
    apply sorted_of; [exact Hp|apply wire_transport_err_class].
  Qed.

  Lemma sorted_ipv4_tail esrc psrc inc pos hl lim' : sorted (pwire2_ipv4_tail bs p esrc psrc inc pos hl lim').
  Proof.
    unfold pwire2_ipv4_tail. cbv zeta.
    destruct (B bs (pos + 9) =? 51); [|apply sorted_transport].
    pose proof (wire_ah_err_class bs CeAuthZeroPayloadLen esrc (pos + hl) lim' (or_introl eq_refl)) as A.
    destruct (wire_ah bs CeAuthZeroPayloadLen esrc (pos + hl) lim'); [apply sorted_transport|].
    destruct A as (e & -> & A). now split.
  Qed.

  Lemma sorted_ipv6_tail esrc psrc inc pos lim' : sorted (pwire2_ipv6_tail bs p esrc psrc inc pos lim').
  Proof.
    unfold pwire2_ipv6_tail. cbv zeta.
    pose proof (exts2_err_class bs esrc (S (N.to_nat (lim' - (pos + 40)))) (pos + 40) lim' (B bs (pos + 6))) as A.
    destruct (wire_exts2 bs _ esrc (pos + 40) lim' (B bs (pos + 6))) as [e nx fr|e nh fr tag r];
      [apply sorted_transport|].
    apply sorted_netr; [exact Hp|]. destruct r; [exact I|exact A|exact I].
  Qed.

  Lemma sorted_ipv4_body src pos lim hl : sorted (pwire2_ipv4_body bs p src pos lim hl).
  Proof.
    unfold pwire2_ipv4_body.
    destruct (W bs (pos + 2) <? hl); [split; [reflexivity|]; split; [exact Hp|apply sorted_ipv4_tail]|].
    destruct (lim - pos <? W bs (pos + 2)); [|apply sorted_ipv4_tail].
    split; [reflexivity|]. split; [exact Hp|apply sorted_ipv4_tail].
  Qed.

  Lemma sorted_ipv6_body src pos lim : sorted (pwire2_ipv6_body bs p src pos lim).
  Proof.
    unfold pwire2_ipv6_body.
    destruct ((W bs (pos + 4) =? 0) && (40 <? lim - pos)); [apply sorted_ipv6_tail|].
    destruct (lim - pos <? 40 + W bs (pos + 4)); [|apply sorted_ipv6_tail].
    split; [reflexivity|]. split; [exact Hp|apply sorted_ipv6_tail].
  Qed.

  Lemma sorted_ip src pos lim : sorted (pwire2_ip bs p src pos lim).
  Proof.
    unfold pwire2_ip.
    destruct (lim - pos =? 0); [now split|].
    destruct (B bs pos / 16 =? 4).
    { destruct (B bs pos mod 16 <? 5); [now split|].
      destruct (lim - pos <? B bs pos mod 16 * 4); [now split|apply sorted_ipv4_body]. }
    destruct (B bs pos / 16 =? 6); [|now split].
    destruct (lim - pos <? 40); [now split|apply sorted_ipv6_body].
  Qed.

  Lemma sorted_net et src pos lim : sorted (pwire2_net bs p et src pos lim).
  Proof.
    unfold pwire2_net.
    destruct (et =? 2054); [apply sorted_of; [exact Hp|apply wire_arp_err_class]|].
    destruct (et =? 2048).
    { unfold pwire2_ipv4.
      destruct (lim - pos <? 20); [now split|].
      destruct (negb (B bs pos / 16 =? 4)); [now split|].
      destruct (B bs pos mod 16 <? 5); [now split|].
      destruct (lim - pos <? B bs pos mod 16 * 4); [now split|apply sorted_ipv4_body]. }
    destruct (et =? 34525); [|exact I].
    unfold pwire2_ipv6.
    destruct (lim - pos <? 40); [now split|].
    destruct (negb (B bs pos / 16 =? 6)); [now split|apply sorted_ipv6_body].
  Qed.
End Sorted.

Lemma sorted_ether bs cap : forall p et src pos lim,
  v_transport p = None -> sorted (pwire2_ether bs cap p et src pos lim).
Proof.
  induction cap as [|cap IH]; intros p et src pos lim Hp.
  - cbn [pwire2_ether].
    destruct (is_vlan et); [exact I|]. destruct (et =? 35045); [exact I|]. now apply sorted_net.
  - destruct (N.eqb_spec et 35045) as [->|Ne].
    { rewrite pwire2_ether_macsec. unfold sectag_strict.
      destruct (sectag_dec bs pos lim) as [req|c|hl body unmod has_sl inc] eqn:Ed; [now split| |].
      { destruct (sectag_bad _ _ _ _ Ed) as [-> | ->]; now split. }
      cbv zeta. destruct inc; [now split|]. destruct unmod; [now apply IH|exact I]. }
    apply N.eqb_neq in Ne. cbn [pwire2_ether]. rewrite Ne.
    destruct (is_vlan et); [|now apply sorted_net].
    destruct (lim - pos <? 4); [now split|now apply IH].
Qed.

Theorem pwire2_sorted bs et :
  sorted (pwire2_ethernet bs) /\ sorted (pwire2_ether_type bs et) /\ sorted (pwire2_from_ip bs).
Proof.
  split; [|split].
  - unfold pwire2_ethernet. destruct (n_bs bs <? 14); [now split|now apply sorted_ether].
  - now apply sorted_ether.
  - now apply sorted_ip.
Qed.

(* what a tail of pwire2 (decoding behind the length checks) says about the lax decoding r whose network
   layer is net *)
Definition tail_ok3 (pw : pres2) (r : lvpacket) (net : lvnet) : Prop :=
  match pw with
  | P2RejNet q' n' tag e' => n' = net /\ stopped_in_net r net tag e' /\ vprefix q' (strictify r)
  | P2Acc q' => strictify r = q' /\ lv_stop r = None
  | P2Rej q' e' => v_net q' = Some (strictify_net net) /\ vprefix q' (strictify r) /\ lax_outcome e' r
  | _ => False
  end.
Definition tail_outcome3 (inc : bool) (psrc : len_source) (pw : pres2) (r : lvpacket) (net : lvnet) : Prop :=
  lv_net r = Some net /\ net_flags net = Some (inc, psrc) /\ tail_ok3 pw r net.

Section NetBody.
  Variables (bs : bytes) (p : vpacket) (lp : lvpacket) (src : len_source) (pos lim : N).
  Hypothesis Hs : strictify lp = p.
  Hypothesis Hst : lv_stop lp = None.
  Hypothesis Hn : lv_net lp = None.
  Hypothesis Htr : lv_transport lp = None.

  Lemma r_transport net ipn frag esrc psrc pos' l' :
    (psrc = esrc \/ psrc = LsSlice) ->
    let q := with_net p (strictify_net net) in
    let r := lwire_transport bs (lwith_net lp net) ipn frag psrc pos' l' in
    lv_net r = Some net /\
    tail_ok3 (pres2_of q (wire_transport bs q ipn frag esrc pos' l')) r net.
  Proof.
    intros Hps q r. split.
    { subst r. destruct (ltransport_keeps bs (lwith_net lp net) ipn frag psrc pos' l') as (_ & _ & ->).
      reflexivity. }
    assert (Hq : strictify (lwith_net lp net) = q) by (subst q; now rewrite strictify_lwith_net, Hs).
    destruct (transport_agree bs (lwith_net lp net) ipn frag esrc psrc pos' l' Hst Htr Hps) as (V & O).
    rewrite Hq in V, O.
    destruct (wire_transport bs q ipn frag esrc pos' l') as [q'|e'|s]; cbn [pres2_of tail_ok3].
    - destruct O as (O1 & O2). split; [exact O1|exact (eq_trans O2 Hst)].
    - split; [reflexivity|]. split; [exact V|exact O].
    - exact O.
  Qed.

  Lemma stopped_lstop3 net tag e ipn frag psrc pos' l' :
    let r := lwire_transport bs (lstop (lwith_net lp net) (e, tag)) ipn frag psrc pos' l' in
    stopped_in_net r net tag e /\ vprefix p (strictify r).
  Proof.
    cbv zeta. rewrite (ltransport_stop_keeps _ _ _ _ _ _ _ (e, tag)) by reflexivity. split.
    - unfold stopped_in_net. cbn. auto.
    - rewrite strictify_lstop, strictify_lwith_net, Hs. apply vprefix_with_net.
      rewrite <- Hs. now apply strictify_net_none.
  Qed.

  Lemma r_ipv4_tail esrc psrc inc hl lim' :
    pick_src psrc src = esrc -> (psrc = esrc \/ psrc = LsSlice) ->
    let '(net, pl, st, l') := lwire_ipv4_parts bs src pos hl lim' psrc inc in
    tail_outcome3 inc psrc (pwire2_ipv4_tail bs p esrc psrc inc pos hl lim')
      (lwire_transport bs (lstop_opt (lwith_net lp net) st)
         (lvip_number pl) (lvip_frag pl) (lvip_src pl) (fst (lvip_win pl)) l') net.
  Proof.
    intros Hpick Hps. unfold pwire2_ipv4_tail, lwire_ipv4_parts. rewrite Hpick. cbv zeta.
    destruct (B bs (pos + 9) =? 51).
    - rewrite ah_dec_wire.
      destruct (ah_dec bs CeAuthZeroPayloadLen esrc (pos + hl) lim') as [[ahl next]|e0] eqn:Ea.
      + cbn [lstop_opt lvip_number lvip_frag lvip_src lvip_win fst].
        destruct (r_transport
                    (LVIpv4 (pos, hl) (Some (pos + hl, ahl))
                       (mkLVIp inc next (ipv4_fragmented bs pos) psrc (pos + hl + ahl, lim' - (pos + hl + ahl))))
                    next (ipv4_fragmented bs pos) esrc psrc (pos + hl + ahl) lim' Hps) as (N1 & N2).
        split; [exact N1|]. split; [reflexivity|exact N2].
      + cbn [lstop_opt pres2_net]. split.
        { rewrite (ltransport_stop_keeps _ _ _ _ _ _ _ (e0, LyIpAuthHeader)) by reflexivity. reflexivity. }
        split; [reflexivity|]. cbn [tail_ok3]. split; [reflexivity|apply stopped_lstop3].
    - cbn [lstop_opt lvip_number lvip_frag lvip_src lvip_win fst].
      destruct (r_transport
                  (LVIpv4 (pos, hl) None
                     (mkLVIp inc (B bs (pos + 9)) (ipv4_fragmented bs pos) psrc (pos + hl, lim' - (pos + hl))))
                  (B bs (pos + 9)) (ipv4_fragmented bs pos) esrc psrc (pos + hl) lim' Hps) as (N1 & N2).
      split; [exact N1|]. split; [reflexivity|exact N2].
  Qed.

  Lemma r_ipv6_tail esrc psrc inc lim' :
    pick_src psrc src = esrc -> (psrc = esrc \/ psrc = LsSlice) ->
    let '(net, pl, st, l') := lwire_ipv6_parts bs src pos lim' psrc inc in
    tail_outcome3 inc psrc (pwire2_ipv6_tail bs p esrc psrc inc pos lim')
      (lwire_transport bs (lstop_opt (lwith_net lp net) st)
         (lvip_number pl) (lvip_frag pl) (lvip_src pl) (fst (lvip_win pl)) l') net.
  Proof.
    intros Hpick Hps. unfold pwire2_ipv6_tail, lwire_ipv6_parts. rewrite Hpick. cbv zeta.
    pose proof (exts2_lwire bs esrc (S (N.to_nat (lim' - (pos + 40)))) (pos + 40) lim' (B bs (pos + 6))
                  ltac:(lia)) as X.
    destruct (wire_exts2 bs _ esrc (pos + 40) lim' (B bs (pos + 6))) as [e1 next fr|e1 nh fr tag r].
    - cbn in X. rewrite X. cbn [lstop_opt lvip_number lvip_frag lvip_src lvip_win fst].
      destruct (r_transport
                  (LVIpv6 (pos, 40) (if e1 =? pos + 40 then None else Some (B bs (pos + 6))) fr
                     (pos + 40, e1 - (pos + 40)) (mkLVIp inc next fr psrc (e1, lim' - e1)))
                  next fr esrc psrc e1 lim' Hps) as (N1 & N2).
      split; [exact N1|]. split; [reflexivity|exact N2].
    - cbn in X. destruct X as (err & -> & -> & _). cbn [lstop_opt pres2_net]. split.
      { rewrite (ltransport_stop_keeps _ _ _ _ _ _ _ (err, tag)) by reflexivity. reflexivity. }
      split; [reflexivity|]. cbn [tail_ok3]. split; [reflexivity|apply stopped_lstop3].
  Qed.

  (* a tail reached without a length fallback *)
  Lemma tail_strict inc psrc pw r net :
    tail_outcome3 inc psrc pw r net -> net_outcome lax_outcome pw r.
  Proof.
    intros (T1 & T2 & T3). destruct pw; cbn [net_outcome tail_ok3] in *; try exact I; try contradiction.
    destruct T3 as (-> & T3 & _). exact T3.
  Qed.

  (* a tail reached through a length fallback *)
  Lemma tail_fb q e inc pw r net :
    tail_outcome3 inc LsSlice pw r net -> net_outcome lax_outcome (P2Fb q e inc pw) r.
  Proof.
    intros (T1 & T2 & T3). cbn [net_outcome]. exists net. split; [exact T1|]. split; [exact T2|].
    destruct pw; cbn [tail_ok3] in T3; try contradiction.
    - destruct T3 as (<- & _). unfold strictify. cbn [v_net]. now rewrite T1.
    - tauto.
    - tauto.
  Qed.

  (* The walk from an IP header on, for any property P of (verdict of pwire2, lax reference decoding)
     that holds at its three kinds of leaves: a tail reached without length fallback, a tail reached
     through one, a rejection of the IP header itself. *)
  Variable P : pres2 -> lvpacket -> Prop.
  Hypothesis P_tail : forall inc psrc pw r net, tail_outcome3 inc psrc pw r net -> P pw r.
  Hypothesis P_fb : forall l inc pw r net,
    (le_layer l = LyIpv4Packet \/ le_layer l = LyIpv6Packet) -> vprefix p (strictify r) ->
    tail_outcome3 inc LsSlice pw r net -> P (P2Fb p (ELen l) inc pw) r.
  Hypothesis P_rej4 : forall e,
    pwire_ipv4 bs p src pos lim = PRej p e -> P (P2Rej p e) (lwire_ip bs lp src pos lim).
  Hypothesis P_rej6 : forall e,
    pwire_ipv6 bs p src pos lim = PRej p e -> P (P2Rej p e) (lwire_ip bs lp src pos lim).

  Lemma w_ipv4_body :
    B bs pos / 16 = 4 ->
    P (pwire2_ipv4_body bs p src pos lim (B bs pos mod 16 * 4)) (lwire_ip_body bs lp src pos lim).
  Proof.
    intros H4.
    assert (V : vprefix p (strictify (lwire_ip_body bs lp src pos lim)))
      by (rewrite <- Hs; now apply M_ip_body).
    revert V. unfold pwire2_ipv4_body, lwire_ip_body, lwire_ip_parts.
    rewrite H4. change (4 =? 4) with true. cbv iota.
    set (hl := B bs pos mod 16 * 4).
    destruct (W bs (pos + 2) <? hl).
    { pose proof (r_ipv4_tail src LsSlice false hl lim eq_refl (or_intror eq_refl)) as T.
      destruct (lwire_ipv4_parts bs src pos hl lim LsSlice false) as [[[net pl] st] l'].
      intros V. eapply P_fb; [left; reflexivity|exact V|exact T]. }
    destruct (lim - pos <? W bs (pos + 2)).
    { pose proof (r_ipv4_tail src LsSlice true hl lim eq_refl (or_intror eq_refl)) as T.
      destruct (lwire_ipv4_parts bs src pos hl lim LsSlice true) as [[[net pl] st] l'].
      intros V. eapply P_fb; [left; reflexivity|exact V|exact T]. }
    pose proof (r_ipv4_tail LsIpv4HeaderTotalLen LsIpv4HeaderTotalLen false hl (pos + W bs (pos + 2))
                  eq_refl (or_introl eq_refl)) as T.
    destruct (lwire_ipv4_parts bs src pos hl (pos + W bs (pos + 2)) LsIpv4HeaderTotalLen false)
      as [[[net pl] st] l'].
    intros _. eapply P_tail. exact T.
  Qed.

  Lemma w_ipv6_body :
    B bs pos / 16 = 6 ->
    P (pwire2_ipv6_body bs p src pos lim) (lwire_ip_body bs lp src pos lim).
  Proof.
    intros H6.
    assert (V : vprefix p (strictify (lwire_ip_body bs lp src pos lim)))
      by (rewrite <- Hs; now apply M_ip_body).
    revert V. unfold pwire2_ipv6_body, lwire_ip_body, lwire_ip_parts.
    rewrite H6. change (6 =? 4) with false. cbv iota.
    destruct ((W bs (pos + 4) =? 0) && (40 <? lim - pos)).
    { pose proof (r_ipv6_tail src LsSlice false lim eq_refl (or_intror eq_refl)) as T.
      destruct (lwire_ipv6_parts bs src pos lim LsSlice false) as [[[net pl] st] l'].
      intros _. eapply P_tail. exact T. }
    destruct (lim - pos <? 40 + W bs (pos + 4)).
    { pose proof (r_ipv6_tail src LsSlice true lim eq_refl (or_intror eq_refl)) as T.
      destruct (lwire_ipv6_parts bs src pos lim LsSlice true) as [[[net pl] st] l'].
      intros V. eapply P_fb; [right; reflexivity|exact V|exact T]. }
    pose proof (r_ipv6_tail LsIpv6HeaderPayloadLen LsIpv6HeaderPayloadLen false (pos + 40 + W bs (pos + 4))
                  eq_refl (or_introl eq_refl)) as T.
    destruct (lwire_ipv6_parts bs src pos (pos + 40 + W bs (pos + 4)) LsIpv6HeaderPayloadLen false)
      as [[[net pl] st] l'].
    intros _. eapply P_tail. exact T.
  Qed.

  (* reached through the IPv4 ether type *)
  Lemma w_ipv4 : P (pwire2_ipv4 bs p src pos lim) (lwire_ip bs lp src pos lim).
  Proof.
    unfold pwire2_ipv4.
    destruct (lim - pos <? 20) eqn:E20.
    { apply P_rej4. unfold pwire_ipv4. now rewrite E20. }
    destruct (B bs pos / 16 =? 4) eqn:E4; cbn [negb].
    2:{ apply P_rej4. unfold pwire_ipv4. now rewrite E20, E4. }
    destruct (B bs pos mod 16 <? 5) eqn:Ei.
    { apply P_rej4. unfold pwire_ipv4. now rewrite E20, E4, Ei. }
    destruct (lim - pos <? B bs pos mod 16 * 4) eqn:Eh.
    { apply P_rej4. unfold pwire_ipv4. now rewrite E20, E4, Ei, Eh. }
    apply N.eqb_eq in E4.
    unfold lwire_ip. rewrite (ip_hdr_fault_v4 bs src pos lim E4 Ei Eh). apply w_ipv4_body. exact E4.
  Qed.

  (* reached through the IPv6 ether type *)
  Lemma w_ipv6 : P (pwire2_ipv6 bs p src pos lim) (lwire_ip bs lp src pos lim).
  Proof.
    unfold pwire2_ipv6.
    destruct (lim - pos <? 40) eqn:E40.
    { apply P_rej6. unfold pwire_ipv6. now rewrite E40. }
    destruct (B bs pos / 16 =? 6) eqn:E6; cbn [negb].
    2:{ apply P_rej6. unfold pwire_ipv6. now rewrite E40, E6. }
    apply N.eqb_eq in E6.
    unfold lwire_ip. rewrite (ip_hdr_fault_v6 bs src pos lim E6 E40). apply w_ipv6_body. exact E6.
  Qed.

  (* starting at "an IP header" behind a decodable header (from_ip) *)
  Lemma w_ip :
    ip_hdr_fault bs src pos lim = None ->
    P (pwire2_ip bs p src pos lim) (lwire_ip_body bs lp src pos lim).
  Proof.
    intros HF. unfold pwire2_ip.
    destruct (ip_hdr_fault_none bs src pos lim HF) as [(E4 & Ei & Eh)|(E6 & E40)].
    - assert ((lim - pos =? 0) = false) as -> by lia.
      rewrite E4, Ei, Eh. change (4 =? 4) with true. cbv iota. now apply w_ipv4_body.
    - assert ((lim - pos =? 0) = false) as -> by lia.
      rewrite E6, E40. change (6 =? 4) with false. change (6 =? 6) with true. cbv iota. now apply w_ipv6_body.
  Qed.
End NetBody.

Lemma net_outcome_of p r q : net_outcome lax_outcome (pres2_of p r) q.
Proof. destruct r; exact I. Qed.

Section NetOutcome.
  Variables (bs : bytes) (p : vpacket) (lp : lvpacket) (src : len_source) (pos lim : N).
  Hypothesis Hs : strictify lp = p.
  Hypothesis Hst : lv_stop lp = None.
  Hypothesis Hn : lv_net lp = None.
  Hypothesis Htr : lv_transport lp = None.

  Lemma n_ip :
    ip_hdr_fault bs src pos lim = None ->
    net_outcome lax_outcome (pwire2_ip bs p src pos lim) (lwire_ip_body bs lp src pos lim).
  Proof.
    apply (w_ip bs p lp src pos lim Hs Hst Hn Htr (net_outcome lax_outcome)).
    - apply tail_strict.
    - intros l inc pw r net _ _. apply tail_fb.
  Qed.

  Lemma n_net et :
    net_outcome lax_outcome (pwire2_net bs p et src pos lim)
      (if et =? 2054 then lwire_arp bs lp src pos lim
       else if (et =? 2048) || (et =? 34525) then lwire_ip bs lp src pos lim else lp).
  Proof.
    unfold pwire2_net.
    destruct (et =? 2054); [apply net_outcome_of|].
    destruct (et =? 2048).
    { apply (w_ipv4 bs p lp src pos lim Hs Hst Hn Htr (net_outcome lax_outcome)).
      - apply tail_strict.
      - intros l inc pw r net _ _. apply tail_fb.
      - intros e _. exact I. }
    destruct (et =? 34525); [|exact I].
    apply (w_ipv6 bs p lp src pos lim Hs Hst Hn Htr (net_outcome lax_outcome)).
    - apply tail_strict.
    - intros l inc pw r net _ _. apply tail_fb.
    - intros e _. exact I.
  Qed.
End NetOutcome.

Lemma n_ether bs cap : forall p lp et src pos lim,
  strictify lp = p -> lv_stop lp = None -> lv_net lp = None -> lv_transport lp = None ->
  net_outcome lax_outcome (pwire2_ether bs cap p et src pos lim) (lwire_ether bs cap lp et src pos lim).
Proof.
  induction cap as [|cap IH]; intros p lp et src pos lim Hs Hst Hn Htr.
  - cbn [pwire2_ether lwire_ether].
    destruct (is_vlan et); [exact I|]. destruct (et =? 35045); [exact I|]. now apply n_net.
  - destruct (N.eqb_spec et 35045) as [->|Ne].
    { rewrite pwire2_ether_macsec, lwire_ether_macsec. unfold sectag_strict.
      destruct (sectag_dec bs pos lim) as [req|c|hl body unmod has_sl inc]; [exact I|exact I|].
      cbv zeta. destruct inc; [exact I|]. destruct unmod; [|exact I].
      rewrite andb_true_r, pick_src_short. apply IH; auto. rewrite strictify_lwith_ext, Hs. reflexivity. }
    apply N.eqb_neq in Ne. cbn [pwire2_ether lwire_ether]. rewrite Ne.
    destruct (is_vlan et); [|now apply n_net].
    destruct (lim - pos <? 4); [exact I|].
    apply IH; auto. rewrite strictify_lwith_ext, Hs. reflexivity.
Qed.

(* strict = the strict model's verdict, pw = the finer instrumented strict reference decoder,
   lax = the lax model *)
Definition prefix_net_ok (strict : res sliced_packet) (pw : pres2) (lax : res lax_sliced_packet) : Prop :=
  forall e, strict = Err e ->
  exists e_ref r',
    rej2 pw = Some e_ref /\               (* the reference decoder rejects, with e_ref *)
    res_rel (VErr e) (VErr e_ref) /\      (* the strict model reports that fault (C03/C07 relation) *)
    is_net_rej pw = in_net_layer e /\     (* pw hands back a network layer exactly when e names a place
                                             inside the network layer *)
    lax = Ok r' /\
    net_outcome lax_outcome pw (lview r').

Lemma in_net_layer_rel e e_ref : res_rel (VErr e) (VErr e_ref) -> in_net_layer e = in_net_layer e_ref.
Proof.
  destruct e as [l|c], e_ref as [l'|c']; cbn [res_rel]; try contradiction.
  - intros (_ & _ & H & _). cbn. now rewrite H.
  - now intros ->.
Qed.

Lemma strict_err_pwire2 strict w pw e :
  res_rel (vres_of strict) w -> forget (to_pres pw) = w -> strict = Err e ->
  exists e_ref, rej2 pw = Some e_ref /\ res_rel (VErr e) (VErr e_ref).
Proof.
  intros RR F ->. cbn [vres_of] in RR. destruct pw as [pa|q e_ref|q n tag e_ref|q e_ref inc r|s]; cbn [to_pres forget] in F; subst w.
  - destruct e; contradiction.
  - exists e_ref. split; [reflexivity|exact RR].
  - exists e_ref. split; [reflexivity|exact RR].
  - exists e_ref. split; [reflexivity|exact RR].
  - destruct e; contradiction.
Qed.

Theorem lax_prefix_net_packet bs et :
  bytes_ok bs ->
  (14 <= len bs ->
   prefix_net_ok (SlicedPacket.from_ethernet bs) (pwire2_ethernet bs) (LaxSlicedPacket.from_ethernet bs)) /\
  prefix_net_ok (SlicedPacket.from_ether_type et bs) (pwire2_ether_type bs et)
    (LaxSlicedPacket.from_ether_type et bs) /\
  (ip_header_fault bs = None ->
   prefix_net_ok (SlicedPacket.from_ip bs) (pwire2_from_ip bs) (LaxSlicedPacket.from_ip bs)).
Proof.
  intros Hok. destruct (pwire2_sound bs et) as (S1 & S2 & S3).
  destruct (pwire2_sorted bs et) as (C1 & C2 & C3). apply sorted_class in C1, C2, C3. split; [|split].
  - intros H14 e E.
    destruct (strict_err_pwire2 _ _ _ e (from_ethernet_rel bs Hok) S1 E) as (e_ref & PW & RE).
    destruct (lax_from_ethernet_ok bs Hok H14) as (r' & -> & Q).
    assert (E14 : (len bs <? 14) = false) by lia.
    exists e_ref, r'. split; [exact PW|]. split; [exact RE|].
    split; [rewrite (in_net_layer_rel _ _ RE); now apply C1|]. split; [reflexivity|].
    rewrite Q. unfold pwire2_ethernet, n_bs. rewrite E14. apply n_ether; reflexivity.
  - intros e E.
    destruct (strict_err_pwire2 _ _ _ e (from_ether_type_rel bs et Hok) S2 E) as (e_ref & PW & RE).
    destruct (lax_from_ether_type_ok bs et Hok) as (r' & -> & Q).
    exists e_ref, r'. split; [exact PW|]. split; [exact RE|].
    split; [rewrite (in_net_layer_rel _ _ RE); now apply C2|]. split; [reflexivity|].
    rewrite Q. unfold pwire2_ether_type, n_bs. apply n_ether; reflexivity.
  - intros HF e E. rewrite <- ip_hdr_fault_whole in HF.
    destruct (strict_err_pwire2 _ _ _ e (from_ip_rel bs Hok) S3 E) as (e_ref & PW & RE).
    destruct (lax_from_ip_ok bs Hok HF) as (r' & -> & Q).
    exists e_ref, r'. split; [exact PW|]. split; [exact RE|].
    split; [rewrite (in_net_layer_rel _ _ RE); now apply C3|]. split; [reflexivity|].
    rewrite Q. unfold pwire2_from_ip, n_bs.
    apply (n_ip bs empty_packet lempty_packet LsSlice 0 (len bs)); try reflexivity. exact HF.
Qed.

(* the payload of the returned IPv4 / IPv6 slice is marked incomplete exactly when the total length /
   40 + payload length read at the window's start exceeds the window; then len_source = Slice and the
   payload ends at the window's end (net_flag_ok of LaxWire.v, as in the whole-packet theorem) *)
Theorem lax_ipslice_incomplete bs s pos lim ip st :
  bytes_ok bs -> repr bs s pos lim ->
  LaxIpSlice.from_slice s = Ok (ip, st) ->
  net_flag_ok bs (pos, lim - pos) (lview_net (L.net_of_ip ip)).
Proof.
  intros Hok R E. pose proof R as (_ & Hp & _).
  destruct (ip_hdr_fault bs LsSlice pos lim) as [e|] eqn:HF.
  - destruct (l_ipslice_err bs s pos lim LsSlice e R HF) as (e0 & E0 & _). congruence.
  - destruct (l_ipslice_ok bs s pos lim LsSlice Hok R HF) as (ip' & st' & E' & F).
    rewrite E in E'. injection E' as <- <-.
    pose proof (ip_parts_flags bs LsSlice pos lim Hp HF) as G.
    destruct (lwire_ip_parts bs LsSlice pos lim) as [[[net pl] st1] lim'].
    destruct F as (<- & _). exact G.
Qed.
