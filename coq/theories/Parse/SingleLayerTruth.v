(* Parse/SingleLayerTruth.v -- property C07 for the SINGLE-LAYER
   decoders called directly (`XSlice::from_slice(slice)`), on every window [pos, lim) of every
   buffer (`repr bs s pos lim`; the whole buffer is `repr_whole bs : repr bs (mk_slice bs) 0
   (len bs)`).  Nothing new is modelled: the decoders are those of Parse/Slices.v, the reference
   is the per-layer function of Parse/WireSpec.v started at (source Slice, position pos, limit
   lim), and the proofs instantiate the per-layer refinement lemmas of Parse/StrictProofs.v
   (`udp_exact`, `tcp_exact`, `icmp4_exact`, `icmp6_exact`, `arp_rel`, `ipv4_rel`, `ipv6_rel`, `ip_rel`,
   `ether_rel`, `exts_rel`, `ah_eq`) with a cursor that has decoded nothing and stands at `pos`.

   A decoder called on a sub-slice reports offsets relative to THAT slice (it is "the buffer the
   caller passed in"); `shift_err e pos` moves the record into the coordinates of the enclosing
   buffer `bs`, `shift_err e 0 = e`. *)
From EP Require Import Base.Bytes Parse.Types Parse.Slices Parse.Cursor Parse.View
  Parse.WireSpec Parse.Repr Parse.StrictProofs Parse.WireSpecFacts Parse.StrictFacts.
From Coq Require Import ZArith Lia ZifyN ZifyBool.
Import SlicedPacketCursor.

Local Open Scope N_scope.

Definition shift_err (e : slice_error) (pos : N) : slice_error :=
  match e with
  | ELen l => ELen (le_add_offset l pos)
  | EContent c => EContent c
  end.

Lemma shift_err_0 e : shift_err e 0 = e.
Proof.
  destruct e as [[r l s ly o]|c]; cbn; [|reflexivity].
  unfold le_add_offset; cbn. now rewrite N.add_0_r.
Qed.

(* a cursor that has decoded nothing and stands at `pos` (pos = 0: SlicedPacketCursor::new) *)
Definition cur_at (pos : N) : cursor := mkCursor pos LsSlice (mkSliced None [] None None).

Lemma cur_at_0 : cur_at 0 = new.
Proof. reflexivity. Qed.

Lemma tr_fix_cur_at pos l : tr_fix (cur_at pos) l = le_add_offset l pos.
Proof. destruct l as [r a s ly o]. destruct s; reflexivity. Qed.

(* the record that is truthful w.r.t. a reference answer w *)
Definition truthful_at (e : slice_error) (pos : N) (w : vres) : Prop :=
  c07_truthful (VErr (shift_err e pos)) w.

Lemma exact_truthful e pos w : w = VErr (shift_err e pos) -> truthful_at e pos w.
Proof.
  intros ->. unfold truthful_at. destruct (shift_err e pos) as [l|c]; cbn; [|reflexivity].
  exists l. repeat split; auto.
Qed.

Section Window.
  Variables (bs : bytes) (s : slice) (pos lim : N).
  Hypothesis Hok : bytes_ok bs.
  Hypothesis R : repr bs s pos lim.

  (* transport: the complete record, no relaxation of the length source *)
  Lemma exact_single {A} (r : res A) ok w e :
    tr_exact r ok LsSlice pos w -> r = Err e -> w = VErr (shift_err e pos).
  Proof.
    intros X ->. destruct e as [l|c]; cbn [tr_exact shift_err] in *; [|exact X].
    now rewrite tr_err_slice in X.
  Qed.

  Lemma udp_single p e :
    UdpSlice.from_slice s = Err e -> wire_udp bs p LsSlice pos lim = VErr (shift_err e pos).
  Proof. exact (exact_single _ _ _ e (udp_exact bs s pos lim p LsSlice R)). Qed.

  Lemma tcp_single p e :
    TcpSlice.from_slice s = Err e -> wire_tcp bs p LsSlice pos lim = VErr (shift_err e pos).
  Proof. exact (exact_single _ _ _ e (tcp_exact bs s pos lim p LsSlice Hok R)). Qed.

  Lemma icmp4_single p e :
    Icmpv4Slice.from_slice s = Err e -> wire_icmp4 bs p LsSlice pos lim = VErr (shift_err e pos).
  Proof. exact (exact_single _ _ _ e (icmp4_exact bs s pos lim p LsSlice R)). Qed.

  Lemma icmp6_single p e :
    Icmpv6Slice.from_slice s = Err e -> wire_icmp6 p LsSlice pos lim = VErr (shift_err e pos).
  Proof. exact (exact_single _ _ _ e (icmp6_exact bs s pos lim p LsSlice R)). Qed.

  (* ARP: the complete record except that the second error names ArpAddrLengths (F7) *)
  Lemma arp_single p e :
    ArpPacketSlice.from_slice s = Err e ->
    exists l, e = ELen l /\
      wire_arp bs p LsSlice pos lim = VErr (ELen (le_set_src (le_add_offset l pos) LsSlice)) /\
      (le_src l = LsSlice \/ (F7 l /\ le_required l = 8 + B bs (pos + 4) * 2 + B bs (pos + 5) * 2)).
  Proof.
    unfold ArpPacketSlice.from_slice, wire_arp.
    rewrite (repr_len _ _ _ _ R).
    destruct (lim - pos <? 8) eqn:E8; cbn.
    - intros H. injection H as <-. eexists. split; [reflexivity|]. split; [reflexivity|]. now left.
    - rd8 R 4. rd8 R 5.
      destruct (lim - pos <? 8 + B bs (pos + 4) * 2 + B bs (pos + 5) * 2) eqn:El; cbn.
      + intros H. injection H as <-. eexists. split; [reflexivity|]. split; [reflexivity|].
        right. split; [left; split; reflexivity|reflexivity].
      + get_prefix R (8 + B bs (pos + 4) * 2 + B bs (pos + 5) * 2) a Ea Ra. rewrite Ea. discriminate.
  Qed.

  Lemma vlan_single p et e : is_vlan et = true ->
    SingleVlanSlice.from_slice s = Err e ->
    wire_ether bs 3 p et LsSlice pos lim = VErr (shift_err e pos).
  Proof.
    intros Hv. unfold SingleVlanSlice.from_slice. rewrite (repr_len _ _ _ _ R).
    cbn [wire_ether]. rewrite Hv.
    destruct (lim - pos <? 4) eqn:E4; [|discriminate].
    intros H. injection H as <-. reflexivity.
  Qed.

  Lemma macsec_single e :
    Macsec.from_slice s = Err e ->
    truthful_at e pos (wire_ether bs 3 empty_packet 35045 LsSlice pos lim).
  Proof.
    intros He.
    pose proof (ether_rel bs Hok 3 4%nat (cur_at pos) (mkEtherPayload 35045 LsSlice s) pos lim LsSlice
                  ltac:(lia) eq_refl R eq_refl (src_ok_refl _)) as H.
    cbn [slice_ether_type_loop ep_ether_type ep_slice] in H.
    change (is_vlan_type 35045) with false in H.
    change (35045 =? ET_MACSEC) with true in H.
    change (LINK_EXTS_CAP <=? len (sp_exts (c_result (cur_at pos)))) with false in H.
    cbv iota in H. rewrite He in H.
    apply res_rel_c07 in H. unfold truthful_at. destruct e; exact H.
  Qed.

  Lemma ipv4_single e :
    Ipv4Slice.from_slice s = Err e ->
    truthful_at e pos (wire_ipv4 bs empty_packet LsSlice pos lim).
  Proof.
    intros He.
    pose proof (ipv4_rel bs (cur_at pos) s pos lim LsSlice Hok R eq_refl (src_ok_refl _)) as H.
    rewrite slice_ipv4_unfold, He in H.
    apply res_rel_c07 in H. unfold truthful_at. destruct e; exact H.
  Qed.

  Lemma ipv6_single e :
    Ipv6Slice.from_slice s = Err e ->
    truthful_at e pos (wire_ipv6 bs empty_packet LsSlice pos lim).
  Proof.
    intros He.
    pose proof (ipv6_rel bs (cur_at pos) s pos lim LsSlice Hok R eq_refl (src_ok_refl _)) as H.
    rewrite slice_ipv6_unfold, He in H.
    apply res_rel_c07 in H. unfold truthful_at. destruct e; exact H.
  Qed.

  Lemma ip_single e :
    IpSlice.from_slice s = Err e ->
    truthful_at e pos (wire_ip bs empty_packet LsSlice pos lim).
  Proof.
    intros He.
    pose proof (ip_rel bs (cur_at pos) s pos lim LsSlice Hok R eq_refl (src_ok_refl _)) as H.
    unfold slice_ip in H. rewrite He in H.
    apply res_rel_c07 in H. unfold truthful_at. destruct e; exact H.
  Qed.

  (* the IPv6 extension chain behind an IPv6 header announcing `nh`; the IP authentication header *)
  Lemma exts_single nh e :
    Ipv6ExtensionsSlice.from_slice nh s = Err e ->
    wire_exts bs (S (N.to_nat (lim - pos))) LsSlice pos lim nh = ChErr (VErr (shift_err e pos)).
  Proof.
    intros He. pose proof (exts_rel bs Hok LsSlice s pos lim nh R) as X.
    unfold exts_ok in X. rewrite He in X.
    destruct (wire_exts bs (S (N.to_nat (lim - pos))) LsSlice pos lim nh)
      as [e' nx fr|[v|[se|ce]|b]]; try contradiction.
    - destruct X as (x & rest & X & _). discriminate.
    - destruct X as (me & X & A1 & A2 & A3 & A4 & A5 & A6). injection X as ->.
      destruct me as [r a sr ly o], se as [r' a' sr' ly' o']. cbn in *. subst. reflexivity.
    - injection X as ->. reflexivity.
  Qed.

  Lemma ah_single e :
    IpAuthHeaderSlice.from_slice s = Err e ->
    wire_ah bs CeAuthZeroPayloadLen LsSlice pos lim = AhErr (VErr (shift_err e pos)).
  Proof.
    rewrite (ah_eq bs s pos lim R). unfold wire_ah.
    destruct (lim - pos <? 12) eqn:E12.
    { intros H. injection H as <-. reflexivity. }
    destruct (B bs (pos + 1) =? 0) eqn:Ez.
    { intros H. injection H as <-. reflexivity. }
    destruct (lim - pos <? (B bs (pos + 1) + 2) * 4) eqn:El.
    { intros H. injection H as <-. reflexivity. }
    get_prefix R ((B bs (pos + 1) + 2) * 4) a Ea Ra. rewrite Ea. discriminate.
  Qed.
End Window.

Lemma ethernet2_single bs e :
  Ethernet2Slice.from_slice_without_fcs (mk_slice bs) = Err e -> wire_ethernet bs = VErr e.
Proof.
  unfold Ethernet2Slice.from_slice_without_fcs, wire_ethernet, n_bs.
  change (s_len (mk_slice bs)) with (len bs).
  destruct (len bs <? 14); [|discriminate]. intros H. injection H as <-. reflexivity.
Qed.

Lemma linux_sll_single bs e : bytes_ok bs ->
  LinuxSll.from_slice (mk_slice bs) = Err e -> truthful_at e 0 (wire_linux_sll bs).
Proof.
  intros Hok He. pose proof (from_linux_sll_rel bs Hok) as H.
  unfold SlicedPacket.from_linux_sll, slice_linux_sll in H. rewrite He in H.
  apply res_rel_c07 in H. unfold truthful_at. destruct e; exact H.
Qed.

Lemma arp_single_truthful bs s pos lim e : bytes_ok bs -> repr bs s pos lim ->
  ArpPacketSlice.from_slice s = Err e ->
  truthful_at e pos (wire_arp bs empty_packet LsSlice pos lim).
Proof.
  intros Hok R He.
  pose proof (arp_rel bs (cur_at pos) s pos lim LsSlice Hok R eq_refl (src_ok_refl _)) as H.
  unfold slice_arp in H. rewrite He in H.
  apply res_rel_c07 in H. unfold truthful_at. destruct e; exact H.
Qed.

Lemma truthful_dir bs l pos w : truthful_at (ELen l) pos w -> EOK bs w -> len_direction l.
Proof.
  unfold truthful_at. cbn. intros (se & -> & Hl & Ho & Hn & Hr & _) HE.
  specialize (HE (ELen se) eq_refl). cbn [classify] in HE.
  destruct (class_len bs se) as [c|] eqn:Ec; [|contradiction].
  exact (len_direction_ext l se Hl Hr Hn (proj1 (class_len_direction bs se c Ec))).
Qed.

Lemma osrc_slice : osrc LsSlice.
Proof. now left. Qed.

Theorem single_layer_len_direction bs s pos lim nh l : bytes_ok bs -> repr bs s pos lim ->
  (UdpSlice.from_slice s = Err (ELen l) -> len_direction l) /\
  (TcpSlice.from_slice s = Err (ELen l) -> len_direction l) /\
  (Icmpv4Slice.from_slice s = Err (ELen l) -> len_direction l) /\
  (Icmpv6Slice.from_slice s = Err (ELen l) -> len_direction l) /\
  (ArpPacketSlice.from_slice s = Err (ELen l) -> len_direction l) /\
  (SingleVlanSlice.from_slice s = Err (ELen l) -> len_direction l) /\
  (Macsec.from_slice s = Err (ELen l) -> len_direction l) /\
  (Ipv4Slice.from_slice s = Err (ELen l) -> len_direction l) /\
  (Ipv6Slice.from_slice s = Err (ELen l) -> len_direction l) /\
  (IpSlice.from_slice s = Err (ELen l) -> len_direction l) /\
  (Ipv6ExtensionsSlice.from_slice nh s = Err (ELen l) -> len_direction l) /\
  (IpAuthHeaderSlice.from_slice s = Err (ELen l) -> len_direction l).
Proof.
  intros Hok R.
  repeat match goal with |- _ /\ _ => split end; intros He.
  - apply (truthful_dir bs l pos (wire_udp bs empty_packet LsSlice pos lim)).
    + apply exact_truthful. now apply (udp_single bs s pos lim R).
    + apply wire_udp_eok, osrc_slice.
  - apply (truthful_dir bs l pos (wire_tcp bs empty_packet LsSlice pos lim)).
    + apply exact_truthful. now apply (tcp_single bs s pos lim Hok R).
    + apply wire_tcp_eok.
  - apply (truthful_dir bs l pos (wire_icmp4 bs empty_packet LsSlice pos lim)).
    + apply exact_truthful. now apply (icmp4_single bs s pos lim R).
    + apply wire_icmp4_eok.
  - apply (truthful_dir bs l pos (wire_icmp6 empty_packet LsSlice pos lim)).
    + apply exact_truthful. now apply (icmp6_single bs s pos lim R).
    + apply wire_icmp6_eok.
  - apply (truthful_dir bs l pos (wire_arp bs empty_packet LsSlice pos lim)).
    + now apply (arp_single_truthful bs s pos lim).
    + apply wire_arp_eok.
  - apply (truthful_dir bs l pos (wire_ether bs 3 empty_packet 33024 LsSlice pos lim)).
    + apply exact_truthful. now apply (vlan_single bs s pos lim R).
    + apply wire_ether_eok, osrc_slice.
  - apply (truthful_dir bs l pos (wire_ether bs 3 empty_packet 35045 LsSlice pos lim)).
    + now apply (macsec_single bs s pos lim Hok R).
    + apply wire_ether_eok, osrc_slice.
  - apply (truthful_dir bs l pos (wire_ipv4 bs empty_packet LsSlice pos lim)).
    + now apply (ipv4_single bs s pos lim Hok R).
    + apply wire_ipv4_eok.
  - apply (truthful_dir bs l pos (wire_ipv6 bs empty_packet LsSlice pos lim)).
    + now apply (ipv6_single bs s pos lim Hok R).
    + apply wire_ipv6_eok, osrc_slice.
  - apply (truthful_dir bs l pos (wire_ip bs empty_packet LsSlice pos lim)).
    + now apply (ip_single bs s pos lim Hok R).
    + apply wire_ip_eok, osrc_slice.
  - pose proof (exts_single bs s pos lim Hok R nh _ He) as X.
    apply (truthful_dir bs l pos (VErr (shift_err (ELen l) pos))).
    + now apply exact_truthful.
    + destruct (wire_exts_eok bs _ _ _ _ _ _ X) as [H|H]; [discriminate|exact H].
  - pose proof (ah_single bs s pos lim R _ He) as X.
    apply (truthful_dir bs l pos (VErr (shift_err (ELen l) pos))).
    + now apply exact_truthful.
    + apply (wire_ah_eok bs CeAuthZeroPayloadLen LsSlice pos lim _ ltac:(discriminate) X).
Qed.

Theorem single_layer_start_len_direction bs l : bytes_ok bs ->
  (Ethernet2Slice.from_slice_without_fcs (mk_slice bs) = Err (ELen l) -> len_direction l) /\
  (LinuxSll.from_slice (mk_slice bs) = Err (ELen l) -> len_direction l).
Proof.
  intros Hok. split; intros He.
  - apply (truthful_dir bs l 0 (wire_ethernet bs)).
    + apply exact_truthful. rewrite shift_err_0. now apply ethernet2_single.
    + apply wire_ethernet_eok.
  - apply (truthful_dir bs l 0 (wire_linux_sll bs)).
    + now apply linux_sll_single.
    + apply wire_linux_sll_eok.
Qed.

(* transport decoders + VLAN + extension chain + authentication header: the COMPLETE record of the
   reference function (layer, offset, len, required_len, len_source; content value) *)
Theorem single_layer_exact bs s pos lim p et nh : bytes_ok bs -> repr bs s pos lim ->
  (forall e, UdpSlice.from_slice s = Err e -> wire_udp bs p LsSlice pos lim = VErr (shift_err e pos)) /\
  (forall e, TcpSlice.from_slice s = Err e -> wire_tcp bs p LsSlice pos lim = VErr (shift_err e pos)) /\
  (forall e, Icmpv4Slice.from_slice s = Err e -> wire_icmp4 bs p LsSlice pos lim = VErr (shift_err e pos)) /\
  (forall e, Icmpv6Slice.from_slice s = Err e -> wire_icmp6 p LsSlice pos lim = VErr (shift_err e pos)) /\
  (is_vlan et = true -> forall e, SingleVlanSlice.from_slice s = Err e ->
     wire_ether bs 3 p et LsSlice pos lim = VErr (shift_err e pos)) /\
  (forall e, Ipv6ExtensionsSlice.from_slice nh s = Err e ->
     wire_exts bs (S (N.to_nat (lim - pos))) LsSlice pos lim nh = ChErr (VErr (shift_err e pos))) /\
  (forall e, IpAuthHeaderSlice.from_slice s = Err e ->
     wire_ah bs CeAuthZeroPayloadLen LsSlice pos lim = AhErr (VErr (shift_err e pos))) /\
  (forall e, ArpPacketSlice.from_slice s = Err e ->
     exists l, e = ELen l /\
       wire_arp bs p LsSlice pos lim = VErr (ELen (le_set_src (le_add_offset l pos) LsSlice)) /\
       (le_src l = LsSlice \/ (F7 l /\ le_required l = 8 + B bs (pos + 4) * 2 + B bs (pos + 5) * 2))).
Proof.
  intros Hok R.
  split; [intros e; apply (udp_single bs s pos lim R)|].
  split; [intros e; apply (tcp_single bs s pos lim Hok R)|].
  split; [intros e; apply (icmp4_single bs s pos lim R)|].
  split; [intros e; apply (icmp6_single bs s pos lim R)|].
  split; [intros Hv e; now apply (vlan_single bs s pos lim R)|].
  split; [intros e; apply (exts_single bs s pos lim Hok R)|].
  split; [intros e; apply (ah_single bs s pos lim R)|].
  intros e; apply (arp_single bs s pos lim R).
Qed.

(* MACsec, ARP and the three IP slicers: the C07 relation (layer, offset, len, required_len equal;
   len_source the reference's or Slice outside F7; content errors equal) to the reference function,
   which goes on behind the layer: a rejection of the single-layer decoder is the rejection of
   the reference decoder started at the same place *)
Theorem single_layer_truthful bs s pos lim : bytes_ok bs -> repr bs s pos lim ->
  (forall e, Macsec.from_slice s = Err e ->
     c07_truthful (VErr (shift_err e pos)) (wire_ether bs 3 empty_packet 35045 LsSlice pos lim)) /\
  (forall e, ArpPacketSlice.from_slice s = Err e ->
     c07_truthful (VErr (shift_err e pos)) (wire_arp bs empty_packet LsSlice pos lim)) /\
  (forall e, Ipv4Slice.from_slice s = Err e ->
     c07_truthful (VErr (shift_err e pos)) (wire_ipv4 bs empty_packet LsSlice pos lim)) /\
  (forall e, Ipv6Slice.from_slice s = Err e ->
     c07_truthful (VErr (shift_err e pos)) (wire_ipv6 bs empty_packet LsSlice pos lim)) /\
  (forall e, IpSlice.from_slice s = Err e ->
     c07_truthful (VErr (shift_err e pos)) (wire_ip bs empty_packet LsSlice pos lim)).
Proof.
  intros Hok R.
  split; [intros e; apply (macsec_single bs s pos lim Hok R)|].
  split; [intros e; now apply (arp_single_truthful bs s pos lim)|].
  split; [intros e; apply (ipv4_single bs s pos lim Hok R)|].
  split; [intros e; apply (ipv6_single bs s pos lim Hok R)|].
  intros e; apply (ip_single bs s pos lim Hok R).
Qed.

(* the whole buffer handed to the decoder: offset 0, limit = the slice length, source Slice; the
   reported record itself (no shift) is the truthful one *)
Theorem single_layer_whole bs : bytes_ok bs ->
  (forall e, Ethernet2Slice.from_slice_without_fcs (mk_slice bs) = Err e ->
     c07_truthful (VErr e) (wire_ethernet bs)) /\
  (forall e, LinuxSll.from_slice (mk_slice bs) = Err e -> c07_truthful (VErr e) (wire_linux_sll bs)) /\
  (forall e, SingleVlanSlice.from_slice (mk_slice bs) = Err e ->
     c07_truthful (VErr e) (wire_ether bs 3 empty_packet 33024 LsSlice 0 (len bs))) /\
  (forall e, Macsec.from_slice (mk_slice bs) = Err e ->
     c07_truthful (VErr e) (wire_ether bs 3 empty_packet 35045 LsSlice 0 (len bs))) /\
  (forall e, ArpPacketSlice.from_slice (mk_slice bs) = Err e ->
     c07_truthful (VErr e) (wire_arp bs empty_packet LsSlice 0 (len bs))) /\
  (forall e, Ipv4Slice.from_slice (mk_slice bs) = Err e ->
     c07_truthful (VErr e) (wire_ipv4 bs empty_packet LsSlice 0 (len bs))) /\
  (forall e, Ipv6Slice.from_slice (mk_slice bs) = Err e ->
     c07_truthful (VErr e) (wire_ipv6 bs empty_packet LsSlice 0 (len bs))) /\
  (forall e, IpSlice.from_slice (mk_slice bs) = Err e -> c07_truthful (VErr e) (wire_from_ip bs)) /\
  (forall e, UdpSlice.from_slice (mk_slice bs) = Err e ->
     c07_truthful (VErr e) (wire_udp bs empty_packet LsSlice 0 (len bs))) /\
  (forall e, TcpSlice.from_slice (mk_slice bs) = Err e ->
     c07_truthful (VErr e) (wire_tcp bs empty_packet LsSlice 0 (len bs))) /\
  (forall e, Icmpv4Slice.from_slice (mk_slice bs) = Err e ->
     c07_truthful (VErr e) (wire_icmp4 bs empty_packet LsSlice 0 (len bs))) /\
  (forall e, Icmpv6Slice.from_slice (mk_slice bs) = Err e ->
     c07_truthful (VErr e) (wire_icmp6 empty_packet LsSlice 0 (len bs))).
Proof.
  intros Hok. pose proof (repr_whole bs) as R.
  assert (T : forall e w, truthful_at e 0 w -> c07_truthful (VErr e) w).
  { intros e w. unfold truthful_at. now rewrite shift_err_0. }
  repeat match goal with |- _ /\ _ => split end; intros e He; apply T.
  - apply exact_truthful. rewrite shift_err_0. now apply ethernet2_single.
  - now apply linux_sll_single.
  - apply exact_truthful. now apply (vlan_single bs _ 0 (len bs) R).
  - now apply (macsec_single bs _ 0 (len bs) Hok R).
  - now apply (arp_single_truthful bs (mk_slice bs) 0 (len bs)).
  - now apply (ipv4_single bs _ 0 (len bs) Hok R).
  - now apply (ipv6_single bs _ 0 (len bs) Hok R).
  - now apply (ip_single bs _ 0 (len bs) Hok R).
  - apply exact_truthful. now apply (udp_single bs _ 0 (len bs) R).
  - apply exact_truthful. now apply (tcp_single bs _ 0 (len bs) Hok R).
  - apply exact_truthful. now apply (icmp4_single bs _ 0 (len bs) R).
  - apply exact_truthful. now apply (icmp6_single bs _ 0 (len bs) R).
Qed.
