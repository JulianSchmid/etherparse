(* Parse/HdrValStruct.v -- every slice stored in a PacketHeaders model result is a window of
   the input, and its struct Ipv6Extensions is what Ipv6Extensions::from_slice returned on the
   window behind the IPv6 header (`hp_ok`, `hdr_slices_hold`).  The pass follows the struct
   decoders of Parse/HdrModel.v layer by layer: each stored slice is `sub_of` (a
   from_raw_parts window of) the slice the decoder was given; the extension slots come from
   `HdrSlots.from_slice_slots`. *)
From Coq Require Import ZArith Lia ZifyN ZifyBool List.
From EP Require Import Base.Bytes Parse.Types Parse.Slices Parse.Cursor Parse.View Parse.Repr
  Parse.Access Parse.AccessProofs Parse.HdrModel Parse.HdrView Parse.HdrCut Parse.HdrProofs
  Parse.HdrProofs2 Parse.HdrProofs3 Parse.HdrSlots Parse.HdrVal.
Import ListNotations.
Import SlicedPacketCursor.
Local Open Scope N_scope.

Lemma idx_from_sub s k r : HdrModel.idx_from s k = Ok r -> sub_of r s.
Proof.
  unfold HdrModel.idx_from. destruct (k <=? s_len s) eqn:E; [|discriminate].
  intros H. injection H as <-. exists k, (s_len s - k). apply drop_as_sub. lia.
Qed.

Lemma idx_from_off s k r : HdrModel.idx_from s k = Ok r -> s_off r = s_off s + k.
Proof.
  unfold HdrModel.idx_from. destruct (k <=? s_len s); [|discriminate]. intros H. now injection H as <-.
Qed.

Lemma eth_hdr_sub s h rest :
  Ethernet2Header.from_slice s = Ok (h, rest) -> sub_of h s /\ sub_of rest s /\ s_len h = 14.
Proof.
  unfold Ethernet2Header.from_slice. intros H. binv H h' Eh. binv H r' Er. injection H as <- <-.
  destruct (s_len s <? 14); unfold lerr in Eh; [discriminate|].
  split; [now exists 0, 14|]. split; [eapply idx_from_sub; eauto|].
  pose proof (AccessProofs.subU_inv _ _ _ _ Eh) as (_ & L & _). exact L.
Qed.

Lemma vlan_hdr_sub s h rest :
  SingleVlanHeader.from_slice s = Ok (h, rest) -> sub_of h s /\ sub_of rest s.
Proof.
  unfold SingleVlanHeader.from_slice. intros H. binv H h' Eh. binv H r' Er. injection H as <- <-.
  split; [|eapply idx_from_sub; eauto].
  destruct (s_len s <? 4); unfold lerr in Eh; [discriminate|]. now exists 0, 4.
Qed.

Lemma v4_exts_from_sub p s a nh rest :
  Ipv4Extensions.from_slice p s = Ok (a, nh, rest) ->
  optP (fun a => sub_of a s) a /\ sub_of rest s.
Proof.
  unfold Ipv4Extensions.from_slice. destruct (IPN_AUTH =? p).
  - intros H. binv H hdr Eh. binv H r Er. binv H n En. binv H a' Ea. injection H as <- <- <-.
    apply auth_to_header_id in Ea. subst a'. apply ah_wf in Eh. destruct Eh as (_ & S).
    split; [exact S|eapply idx_from_sub; eauto].
  - intros H. injection H as <- <- <-. split; [exact I|apply sub_of_refl].
Qed.

Definition ih_sub (s : slice) (r : ip_headers * ip_payload) : Prop :=
  Forall (fun w => sub_of w s) (hnet_slices (HnIp (fst r))) /\ sub_of (ipp_slice (snd r)) s.

Lemma ih_sub_trans s s' r : ih_sub s r -> sub_of s s' -> ih_sub s' r.
Proof.
  intros (A & B) S. split; [|exact (sub_of_trans _ _ _ B S)].
  eapply Forall_impl; [|exact A]. intros w Hw. exact (sub_of_trans _ _ _ Hw S).
Qed.

Lemma Forall_sub_trans l a b :
  Forall (fun w => sub_of w a) l -> sub_of a b -> Forall (fun w => sub_of w b) l.
Proof. intros F S. eapply Forall_impl; [|exact F]. intros w Hw. exact (sub_of_trans _ _ _ Hw S). Qed.

(* behind the IP header: `header` and the area the extensions are decoded from are windows of s *)
Lemma v4_exts_sub bs s header rest r :
  IpHeaders.v4_exts header rest = Ok r -> sub_of header s -> sub_of rest s ->
  ih_sub s r /\ ih_prov bs (fst r).
Proof.
  unfold IpHeaders.v4_exts. intros H Sh Sr. binv H proto Ep. binv H x Ex. destruct x as ((a, np), rest').
  binv H fr Efr. injection H as <-.
  assert (Ex' : Ipv4Extensions.from_slice proto rest = Ok (a, np, rest')).
  { destruct (Ipv4Extensions.from_slice proto rest) as [y|[e|c]|b]; try discriminate; exact Ex. }
  apply v4_exts_from_sub in Ex'. destruct Ex' as (A & B).
  split; [|exact I]. split; cbn [fst snd hnet_slices ipp_slice]; [|exact (sub_of_trans _ _ _ B Sr)].
  constructor; [exact Sh|]. destruct a as [a|]; cbn [olist optP] in *; [|constructor].
  constructor; [exact (sub_of_trans _ _ _ A Sr)|constructor].
Qed.

Lemma keyed_in l : forall routed k s, In (k, s) (keyed routed l) -> exists it, In it l /\ s = ext_item_slice it.
Proof.
  induction l as [|it r IH]; intros routed k s H; [destruct H|].
  cbn [keyed] in H. destruct H as [H|H].
  - injection H as _ <-. exists it. split; [now left|reflexivity].
  - destruct (IH _ _ _ H) as (it' & A & B). exists it'. split; [now right|exact B].
Qed.

Lemma chain_sub W l : forall k nh k' nh', chain W k nh l k' nh' ->
  forall it, In it l -> sub_of (ext_item_slice it) W.
Proof.
  induction l as [|x r IH]; intros k nh k' nh' C it Hin; [destruct Hin|].
  cbn [chain] in C. destruct C as (_ & _ & S & nx & _ & C').
  destruct Hin as [<-|Hin]; [eexists _, _; exact S|eapply IH; eauto].
Qed.

Lemma struct_exts_sub nh0 hp x nh' r :
  Ipv6Extensions.from_slice nh0 hp = Ok (x, nh', r) ->
  Forall (fun w => sub_of w hp) (exts6_slices x) /\ sub_of r hp.
Proof.
  intros H. destruct (from_slice_slots _ _ _ _ _ H) as (l & k' & (_ & S1) & S2 & S3 & ->).
  split; [|exists k', (s_len hp - k'); now apply drop_as_sub].
  assert (G : forall k, Forall (fun w => sub_of w hp) (olist (slot_get x k))).
  { intros k. destruct (slot_get x k) as [s|] eqn:E; [|constructor]. constructor; [|constructor].
    apply S1 in E. destruct (keyed_in _ _ _ _ E) as (it & Hin & ->). eapply chain_sub; eauto. }
  unfold exts6_slices. repeat (apply Forall_app; split).
  - exact (G SHbh).
  - exact (G SDest).
  - exact (G SRoute).
  - exact (G SFdest).
  - exact (G SFrag).
  - exact (G SAuth).
Qed.

Lemma v6_exts_sub bs s header hp src r :
  IpHeaders.v6_exts header hp src = Ok r ->
  in_buf bs s -> sub_of header s -> sub_of hp s -> s_off hp = s_off header + 40 ->
  ih_sub s r /\ ih_prov bs (fst r).
Proof.
  unfold IpHeaders.v6_exts. intros H Is Sh Shp Off. binv H nh0 En. binv H y Ey. destruct y as ((x, nh'), rest).
  binv H fr Efr. injection H as <-.
  assert (Ey' : Ipv6Extensions.from_slice nh0 hp = Ok (x, nh', rest)).
  { destruct (Ipv6Extensions.from_slice nh0 hp) as [z|[e|c]|b]; try discriminate; exact Ey. }
  destruct (struct_exts_sub _ _ _ _ _ Ey') as (A & B). split.
  - split; cbn [fst snd hnet_slices ipp_slice]; [|exact (sub_of_trans _ _ _ B Shp)].
    constructor; [exact Sh|exact (Forall_sub_trans _ _ _ A Shp)].
  - exists nh0, hp, nh', rest. split; [exact (sub_of_in_buf bs _ _ Is Shp)|]. auto.
Qed.

Lemma ipv4_slice_sub bs s r : IpHeaders.from_ipv4_slice s = Ok r -> ih_sub s r /\ ih_prov bs (fst r).
Proof.
  unfold IpHeaders.from_ipv4_slice. intros H. binv H hr Ehr. destruct hr as (header, hrest).
  binv H totl Etl. binv H pl Epl. binv H hr' Ehr'.
  unfold Ipv4Header.from_slice in Ehr. binv Ehr h Eh. binv Ehr rest Er. injection Ehr as <- <-.
  apply ipv4h_wf in Eh. destruct Eh as (_ & Sh). apply idx_from_sub in Er.
  apply (v4_exts_sub bs s _ _ _ H Sh).
  destruct (s_len rest <? pl); unfold lerr in Ehr'; [discriminate|].
  eapply sub_of_trans; [|exact Er]. now exists 0, pl.
Qed.

Lemma ipv6_slice_sub bs s r :
  in_buf bs s -> IpHeaders.from_ipv6_slice s = Ok r -> ih_sub s r /\ ih_prov bs (fst r).
Proof.
  intros Is. unfold IpHeaders.from_ipv6_slice. intros H. binv H hr Ehr. destruct hr as (header, hrest).
  binv H pl Epl. binv H hp Ehp. destruct hp as (hp, src).
  unfold Ipv6Header.from_slice in Ehr. binv Ehr h Eh. binv Ehr rest Er. injection Ehr as <- <-.
  pose proof (ipv6h_wf _ _ Eh) as (_ & Sh).
  assert (Oh : s_off h = s_off s).
  { unfold Ipv6HeaderSlice.from_slice in Eh. destruct (s_len s <? 40); unfold lerr in Eh; [discriminate|].
    binv Eh v Ev. destruct (negb (N.shiftr v 4 =? 6)); [discriminate|].
    pose proof (AccessProofs.subU_inv _ _ _ _ Eh) as (_ & _ & O & _). lia. }
  pose proof (idx_from_off _ _ _ Er) as Or. apply idx_from_sub in Er.
  assert (X : sub_of hp s /\ s_off hp = s_off rest).
  { destruct ((0 =? pl) && (40 <? s_len s)); [injection Ehp as <- _; auto|].
    destruct (s_len rest <? pl); unfold lerr in Ehp; [discriminate|].
    binv Ehp p Ep. injection Ehp as <- _.
    pose proof (AccessProofs.subU_inv _ _ _ _ Ep) as (_ & _ & O & _).
    split; [eapply sub_of_trans; [|exact Er]; now exists 0, pl|lia]. }
  destruct X as (Shp & Ohp).
  apply (v6_exts_sub bs s _ _ _ _ H Is Sh Shp). lia.
Qed.

Lemma ip_slice_sub bs s r : in_buf bs s -> IpHeaders.from_slice s = Ok r -> ih_sub s r /\ ih_prov bs (fst r).
Proof.
  intros Is. unfold IpHeaders.from_slice. destruct (s_len s =? 0); unfold lerr; [discriminate|].
  intros H. binv H b0 Eb0. destruct (N.shiftr b0 4 =? 4).
  { destruct (s_len s <? 20); [discriminate|]. binv H b0' Eb0'.
    destruct (N.land b0' 15 <? 5); [discriminate|].
    destruct (s_len s <? N.land b0' 15 * 4); [discriminate|].
    binv H header Eh. binv H totl Etl.
    destruct (totl <? N.land b0' 15 * 4); [discriminate|]. destruct (s_len s <? totl); [discriminate|].
    binv H n En. binv H rest Er.
    apply (v4_exts_sub bs s _ _ _ H); eexists _, _; eassumption. }
  destruct (N.shiftr b0 4 =? 6); [|discriminate].
  destruct (s_len s <? 40); [discriminate|].
  binv H header Eh. binv H pl Epl. binv H hp Ehp. destruct hp as (hp, src).
  pose proof (AccessProofs.subU_inv _ _ _ _ Eh) as (_ & _ & Oh & _).
  assert (X : exists n, subU s 40 n = Ok hp).
  { destruct ((0 =? pl) && (40 <? s_len s)).
    - binv Ehp n En. binv Ehp p Ep. injection Ehp as <- _. eexists; exact Ep.
    - cbn zeta in Ehp. destruct (s_len s <? 40 + pl); [discriminate|].
      binv Ehp p Ep. injection Ehp as <- _. eexists; exact Ep. }
  destruct X as (n & Ep). pose proof (AccessProofs.subU_inv _ _ _ _ Ep) as (_ & _ & Ohp & _).
  apply (v6_exts_sub bs s _ _ _ _ H Is); [eexists _, _; exact Eh|eexists _, _; exact Ep|lia].
Qed.

Definition htr_sub (s : slice) (t : htransport) : Prop :=
  sub_of (htr_slice t) s /\ match t with HtTcp h => wf_tcph h | _ => True end.

Lemma read_transport_sub p t pl :
  read_transport p = Ok (t, pl) ->
  optP (htr_sub (ipp_slice p)) t /\ Forall (fun w => sub_of w (ipp_slice p)) (hpayload_slices pl).
Proof.
  unfold read_transport. set (s := ipp_slice p).
  assert (None_case : forall (X : option htransport * hpayload), Ok (None, HpIp p) = Ok X ->
            optP (htr_sub s) (fst X) /\ Forall (fun w => sub_of w s) (hpayload_slices (snd X))).
  { intros X E. injection E as <-. cbn. split; [exact I|]. constructor; [apply sub_of_refl|constructor]. }
  destruct (ipp_fragmented p); [intros H; exact (None_case _ H)|].
  destruct (ipp_number p =? IPN_ICMP).
  { intros H. binv H v Ev. apply map_len_err_inv in Ev. binv H h Eh. binv H q Eqq. injection H as <- <-.
    apply icmp4_wf in Ev. destruct Ev as (-> & _).
    unfold Icmpv4Acc.header in Eh. binv Eh hl Ehl.
    unfold Icmpv4Acc.payload in Eqq. binv Eqq hl' Ehl'. binv Eqq n En.
    cbn [optP htr_sub htr_slice hpayload_slices]. split; [split; [eexists _, _; exact Eh|exact I]|].
    constructor; [eexists _, _; exact Eqq|constructor]. }
  destruct (ipp_number p =? IPN_ICMPV6).
  { intros H. binv H v Ev. apply map_len_err_inv in Ev. binv H h Eh. binv H q Eqq. injection H as <- <-.
    apply icmp6_wf in Ev. destruct Ev as (-> & _).
    unfold Icmpv6Acc.header in Eh. unfold Icmpv6Acc.payload in Eqq. binv Eqq n En.
    cbn [optP htr_sub htr_slice hpayload_slices]. split; [split; [eexists _, _; exact Eh|exact I]|].
    constructor; [eexists _, _; exact Eqq|constructor]. }
  destruct (ipp_number p =? IPN_UDP).
  { intros H. binv H v Ev. apply map_len_err_inv in Ev. binv H h Eh. binv H q Eqq. injection H as <- <-.
    apply udp_wf in Ev. destruct Ev as (_ & Sv).
    unfold UdpAcc.to_header in Eh. unfold UdpAcc.payload in Eqq. binv Eqq n En.
    cbn [optP htr_sub htr_slice hpayload_slices].
    split; [split; [eapply sub_of_trans; [eexists _, _; exact Eh|exact Sv]|exact I]|].
    constructor; [eapply sub_of_trans; [eexists _, _; exact Eqq|exact Sv]|constructor]. }
  destruct (ipp_number p =? IPN_TCP); [|intros H; exact (None_case _ H)].
  intros H. binv H v Ev. apply map_len_err_inv in Ev. injection H as <- <-.
  unfold TcpHeader.from_slice in Ev. binv Ev h Eh. binv Ev r Er. injection Ev as <-. cbn [fst snd].
  apply tcph_wf in Eh. destruct Eh as (W & Sh). apply idx_from_sub in Er.
  cbn [optP htr_sub htr_slice hpayload_slices]. split; [split; assumption|].
  constructor; [exact Er|constructor].
Qed.

Definition st_ok (bs : bytes) (st : hstate) : Prop :=
  Forall (fun x => in_buf bs (hext_slice x)) (hs_exts st) /\ in_buf bs (hs_rest st) /\
  Forall (in_buf bs) (hpayload_slices (hs_payload st)).

Lemma add_offset_not_ok {A} slice rest e (x : A) : PacketHeaders.add_offset slice rest e <> Ok x.
Proof. unfold PacketHeaders.add_offset. destruct (ptr_off rest slice); discriminate. Qed.

Lemma push_ok bs l x l' :
  Forall (fun x => in_buf bs (hext_slice x)) l -> in_buf bs (hext_slice x) ->
  PacketHeaders.push l x = Ok l' -> Forall (fun x => in_buf bs (hext_slice x)) l'.
Proof.
  intros F I. unfold PacketHeaders.push. destruct (len l <? LINK_EXTS_CAP); [|discriminate].
  intros H. injection H as <-. apply Forall_app. split; [exact F|]. constructor; [exact I|constructor].
Qed.

Lemma Forall_sub_in_buf bs l s :
  in_buf bs s -> Forall (fun w => sub_of w s) l -> Forall (in_buf bs) l.
Proof. intros I F. eapply Forall_impl; [|exact F]. intros w Hw. eapply sub_of_in_buf; eauto. Qed.

Lemma link_loop_ok bs slice fuel : forall st o,
  st_ok bs st -> PacketHeaders.link_loop fuel slice st = Ok o ->
  match o with
  | LDone p => hp_ok bs p /\ h_link p = None
  | LBreak st' => st_ok bs st'
  end.
Proof.
  induction fuel as [|f IH]; intros st o Hst H; [discriminate|].
  pose proof Hst as (Hx & Hr & Hp).
  cbn [PacketHeaders.link_loop] in H.
  destruct (is_vlan_type (hs_et st)).
  { destruct (LINK_EXTS_CAP <=? len (hs_exts st)); [injection H as <-; exact Hst|].
    destruct (SingleVlanHeader.from_slice (hs_rest st)) as [[vlan vrest]|[e|c]|b] eqn:Ev; try discriminate;
      [|exfalso; exact (add_offset_not_ok _ _ _ _ H)].
    binv H et' Eet. binv H exts' Epush. apply vlan_hdr_sub in Ev. destruct Ev as (Sv & Sr).
    assert (Iv : in_buf bs vlan) by exact (sub_of_in_buf bs _ _ Hr Sv).
    assert (Ir : in_buf bs vrest) by exact (sub_of_in_buf bs _ _ Hr Sr).
    apply (IH _ _) in H; [exact H|]. unfold st_ok. cbn [hs_exts hs_rest hs_payload hpayload_slices ep_slice].
    split; [exact (push_ok bs _ (HxVlan vlan) _ Hx Iv Epush)|]. split; [exact Ir|]. constructor; [exact Ir|constructor]. }
  destruct (hs_et st =? ET_MACSEC); [|injection H as <-; exact Hst].
  destruct (LINK_EXTS_CAP <=? len (hs_exts st)); [injection H as <-; exact Hst|].
  destruct (Macsec.from_slice (hs_rest st)) as [m|[e|c]|b] eqn:Em; try discriminate;
    [|exfalso; exact (add_offset_not_ok _ _ _ _ H)].
  binv H exts' Epush. apply macsec_wf in Em. destruct Em as (_ & Sh & Sp).
  assert (Ih : in_buf bs (ms_header m)) by exact (sub_of_in_buf bs _ _ Hr Sh).
  assert (Ip : in_buf bs (macsec_payload_slice m)) by exact (sub_of_in_buf bs _ _ Hr Sp).
  assert (Fx : Forall (fun x => in_buf bs (hext_slice x)) exts') by exact (push_ok bs _ (HxMacsec (ms_header m)) _ Hx Ih Epush).
  unfold macsec_payload_slice in Ip.
  destruct (ms_payload m) as [e|mp].
  - apply (IH _ _) in H; [exact H|]. unfold st_ok. cbn [hs_exts hs_rest hs_payload hpayload_slices ep_slice].
    split; [exact Fx|]. split; [exact Ip|]. constructor; [exact Ip|constructor].
  - injection H as <-. split; [|reflexivity]. unfold hp_ok.
    cbn [h_link h_exts h_net h_transport h_payload optP hpayload_slices].
    repeat split; auto.
Qed.

Lemma tail_ok bs exts ih p t pl :
  Forall (fun x => in_buf bs (hext_slice x)) exts ->
  hnet_ok bs (HnIp ih) -> in_buf bs (ipp_slice p) ->
  read_transport p = Ok (t, pl) ->
  hp_ok bs (mkH None exts (Some (HnIp ih)) t pl).
Proof.
  intros Fx Fn Ip H. apply read_transport_sub in H. destruct H as (A & B).
  unfold hp_ok. cbn [h_link h_exts h_net h_transport h_payload optP].
  split; [exact I|]. split; [exact Fx|]. split; [exact Fn|]. split.
  - destruct t as [t|]; [|exact I]. cbn [optP] in *. destruct A as (A1 & A2). split; [|exact A2].
    eapply sub_of_in_buf; eauto.
  - eapply Forall_sub_in_buf; eauto.
Qed.

Lemma ih_sub_in_buf bs s r : in_buf bs s -> ih_sub s r /\ ih_prov bs (fst r) ->
  hnet_ok bs (HnIp (fst r)) /\ in_buf bs (ipp_slice (snd r)).
Proof.
  intros I ((A & B) & P). split; [split; [eapply Forall_sub_in_buf; eauto|exact P]|eapply sub_of_in_buf; eauto].
Qed.

Lemma net_part_ok bs slice st p :
  st_ok bs st -> PacketHeaders.net_part slice st = Ok p -> hp_ok bs p /\ h_link p = None.
Proof.
  intros (Hx & Hr & Hp). unfold PacketHeaders.net_part.
  destruct (hs_et st =? ET_IPV4).
  { destruct (IpHeaders.from_ipv4_slice (hs_rest st)) as [[ip ipp]|[e|c]|b] eqn:E; try discriminate;
      [|intros H; exfalso; exact (add_offset_not_ok _ _ _ _ H)].
    apply (ipv4_slice_sub bs) in E. destruct (ih_sub_in_buf bs _ _ Hr E) as (A & B). cbn [fst snd] in A, B.
    destruct (read_transport ipp) as [[t pl]|[e|c]|b] eqn:T; try discriminate;
      [|intros H; exfalso; exact (add_offset_not_ok _ _ _ _ H)].
    intros H. injection H as <-. split; [|reflexivity]. eapply tail_ok; eauto. }
  destruct (hs_et st =? ET_IPV6).
  { destruct (IpHeaders.from_ipv6_slice (hs_rest st)) as [[ip ipp]|[e|c]|b] eqn:E; try discriminate;
      [|intros H; exfalso; exact (add_offset_not_ok _ _ _ _ H)].
    apply (ipv6_slice_sub bs _ _ Hr) in E. destruct (ih_sub_in_buf bs _ _ Hr E) as (A & B). cbn [fst snd] in A, B.
    destruct (read_transport ipp) as [[t pl]|[e|c]|b] eqn:T; try discriminate;
      [|intros H; exfalso; exact (add_offset_not_ok _ _ _ _ H)].
    intros H. injection H as <-. split; [|reflexivity]. eapply tail_ok; eauto. }
  destruct (hs_et st =? ET_ARP).
  { destruct (ArpPacketSlice.from_slice (hs_rest st)) as [a|[e|c]|b] eqn:E; try discriminate;
      [|intros H; exfalso; exact (add_offset_not_ok _ _ _ _ H)].
    apply arp_wf in E. destruct E as (_ & Sa).
    intros H. injection H as <-. split; [|reflexivity]. unfold hp_ok.
    cbn [h_link h_exts h_net h_transport h_payload optP hpayload_slices hnet_ok hnet_slices].
    repeat split; auto. constructor; [eapply sub_of_in_buf; eauto|constructor]. }
  intros H. injection H as <-. split; [|reflexivity]. unfold hp_ok.
  cbn [h_link h_exts h_net h_transport h_payload optP]. repeat split; auto.
Qed.

Lemma ether_type_slice_ok bs et s p :
  in_buf bs s -> PacketHeaders.from_ether_type_slice et s = Ok p -> hp_ok bs p /\ h_link p = None.
Proof.
  intros I. unfold PacketHeaders.from_ether_type_slice. intros H. binv H o Eo.
  apply (link_loop_ok bs) in Eo.
  - destruct o as [q|st']; [injection H as <-; exact Eo|]. eapply net_part_ok; eauto.
  - unfold st_ok. cbn [hs_exts hs_rest hs_payload hpayload_slices ep_slice].
    split; [constructor|]. split; [exact I|]. constructor; [exact I|constructor].
Qed.

Theorem hp_ok_ether_type bs et p : PacketHeaders.from_ether_type et bs = Ok p -> hp_ok bs p.
Proof.
  unfold PacketHeaders.from_ether_type. intros H.
  apply (ether_type_slice_ok bs) in H; [apply H|apply in_buf_whole].
Qed.

Theorem hp_ok_ethernet bs p : PacketHeaders.from_ethernet_slice bs = Ok p -> hp_ok bs p.
Proof.
  unfold PacketHeaders.from_ethernet_slice. intros H. binv H er Eer. destruct er as (eth, rest).
  binv H et Eet. apply eth_hdr_sub in Eer. destruct Eer as (Se & Sr & Le).
  pose proof (in_buf_whole bs) as I.
  destruct (PacketHeaders.from_ether_type_slice et rest) as [r|[e|c]|b] eqn:E; try discriminate.
  injection H as <-. apply (ether_type_slice_ok bs) in E; [|eapply sub_of_in_buf; eauto].
  destruct E as ((_ & A & B & C & D) & _). unfold hp_ok.
  cbn [h_link h_exts h_net h_transport h_payload optP]. repeat split; auto.
  exact (sub_of_in_buf bs _ _ I Se).
Qed.

Theorem hp_ok_ip bs p : PacketHeaders.from_ip_slice bs = Ok p -> hp_ok bs p.
Proof.
  unfold PacketHeaders.from_ip_slice. intros H. binv H ir Eir. destruct ir as (ip, ipp).
  apply (ip_slice_sub bs _ _ (in_buf_whole bs)) in Eir.
  destruct (ih_sub_in_buf bs _ _ (in_buf_whole bs) Eir) as (A & B).
  cbn [fst snd] in A, B.
  destruct (read_transport ipp) as [[t pl]|[e|c]|b] eqn:T; try discriminate;
    [|exfalso; exact (add_offset_not_ok _ _ _ _ H)].
  injection H as <-. eapply tail_ok; eauto.
Qed.

Lemma hp_ok_slices bs p : hp_ok bs p -> Forall (in_win bs) (hp_slices p).
Proof.
  intros (A & B & C & D & E). unfold hp_slices, hp_header_slices.
  repeat (apply Forall_app; split).
  - destruct (h_link p) as [l|]; cbn [olist]; [|constructor]. constructor; [|constructor].
    apply in_buf_in_win. apply A.
  - apply Forall_map. eapply Forall_impl; [|exact B]. intros x Hx. now apply in_buf_in_win.
  - destruct (h_net p) as [n|]; [|constructor]. cbn [optP] in C.
    eapply Forall_impl; [|exact (proj1 C)]. intros x Hx. now apply in_buf_in_win.
  - destruct (h_transport p) as [t|]; cbn [option_map olist]; [|constructor].
    constructor; [|constructor]. apply in_buf_in_win. apply D.
  - eapply Forall_impl; [|exact E]. intros x Hx. now apply in_buf_in_win.
Qed.

Theorem hdr_slices_hold bs et :
  slices_hold bs (PacketHeaders.from_ethernet_slice bs) /\
  slices_hold bs (PacketHeaders.from_ether_type et bs) /\
  slices_hold bs (PacketHeaders.from_ip_slice bs).
Proof.
  unfold slices_hold. repeat split; intros hp H; apply hp_ok_slices.
  - now apply hp_ok_ethernet.
  - now apply (hp_ok_ether_type bs et).
  - now apply hp_ok_ip.
Qed.
