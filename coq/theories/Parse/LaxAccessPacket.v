(* Parse/LaxAccessPacket.v -- accessors of a LaxSlicedPacket: provenance of every stored
   component, accessor / window safety from provenance, the packet-level accessors, and the
   statements Props/C01.v and Props/C02.v name. *)
From EP Require Import Base.Bytes Parse.Types Parse.Slices Parse.Cursor Parse.Repr
  Parse.LaxSlices Parse.LaxCursor Parse.Access Parse.AccessProofs Parse.ProvFacts Parse.LaxAccess
  Parse.LaxAccessProofs.
From Coq Require Import ZArith Lia ZifyN ZifyBool.
Import LaxSlicedPacketCursor.

Local Open Scope N_scope.

(* whole packets: every stored component was produced by its constructor *)
Definition lax_ext_prov (bs : bytes) (x : lax_link_ext_slice) : Prop :=
  match x with
  | LLeVlan s => exists src, in_buf bs src /\ SingleVlanSlice.from_slice src = Ok s
  | LLeMacsec m => exists src, in_buf bs src /\ LaxMacsecSlice.from_slice src = Ok m
  end.
Definition lax_net_prov (bs : bytes) (n : lax_net_slice) : Prop :=
  match n with
  | LNtIpv4 v => exists src stop, in_buf bs src /\ LaxIpSlice.from_slice src = Ok (LIpV4 v, stop)
  | LNtIpv6 v => exists src stop, in_buf bs src /\ LaxIpSlice.from_slice src = Ok (LIpV6 v, stop)
  | LNtArp a => exists src, in_buf bs src /\ ArpPacketSlice.from_slice src = Ok a
  end.
Definition lax_transport_prov (bs : bytes) (t : transport_slice) : Prop :=
  match t with
  | TrUdp s => exists src, in_buf bs src /\ UdpSlice.from_slice_lax src = Ok s
  | TrTcp hl s => exists src, in_buf bs src /\ TcpSlice.from_slice src = Ok (hl, s)
  | TrIcmpv4 s => exists src, in_buf bs src /\ Icmpv4Slice.from_slice src = Ok s
  | TrIcmpv6 s => exists src, in_buf bs src /\ Icmpv6Slice.from_slice src = Ok s
  end.

(* provenance of every component + the ArrayVec capacity of link_exts *)
Definition lax_sliced_wf (bs : bytes) (p : lax_sliced_packet) : Prop :=
  optP (link_prov bs) (lsp_link p) /\ Forall (lax_ext_prov bs) (lsp_exts p) /\
  optP (lax_net_prov bs) (lsp_net p) /\ optP (lax_transport_prov bs) (lsp_transport p) /\
  len (lsp_exts p) <= LINK_EXTS_CAP.

Section LaxLift.
  Variable bs : bytes.

  Lemma lax_with_stop_wf r e : lax_sliced_wf bs r -> lax_sliced_wf bs (with_stop r e).
  Proof. intros (A & B & C & D & E). unfold lax_sliced_wf, with_stop. cbn. auto. Qed.

  Lemma lax_with_opt_stop_wf r e : lax_sliced_wf bs r -> lax_sliced_wf bs (with_opt_stop r e).
  Proof. intros W. destruct e; cbn [with_opt_stop]; [now apply lax_with_stop_wf|exact W]. Qed.

  Lemma lax_with_net_wf r n : lax_sliced_wf bs r -> lax_net_prov bs n -> lax_sliced_wf bs (with_net r n).
  Proof. intros (A & B & C & D & E) T. unfold lax_sliced_wf, with_net. cbn. auto. Qed.

  Lemma lax_with_transport_wf r t :
    lax_sliced_wf bs r -> lax_transport_prov bs t -> lax_sliced_wf bs (with_transport r t).
  Proof. intros (A & B & C & D & E) T. unfold lax_sliced_wf, with_transport. cbn. auto. Qed.

  Lemma lax_with_link_wf r l : lax_sliced_wf bs r -> link_prov bs l -> lax_sliced_wf bs (with_link r l).
  Proof. intros (A & B & C & D & E) T. unfold lax_sliced_wf, with_link. cbn. auto. Qed.

  Lemma lax_push_ext_wf r x r' :
    lax_sliced_wf bs r -> lax_ext_prov bs x -> push_ext r x = Ok r' -> lax_sliced_wf bs r'.
  Proof.
    intros (A & B & C & D & E) T. unfold push_ext.
    destruct (len (lsp_exts r) <? LINK_EXTS_CAP) eqn:L; [|discriminate].
    intros X. injection X as <-. unfold lax_sliced_wf. cbn. repeat split; auto.
    - apply Forall_app. split; [exact B|]. constructor; [exact T|constructor].
    - rewrite len_app. change (len [x]) with 1. unfold LINK_EXTS_CAP in *. lia.
  Qed.

  Lemma lax_empty_wf : lax_sliced_wf bs empty.
  Proof. unfold lax_sliced_wf, empty, LINK_EXTS_CAP. cbn. repeat split; auto. lia. Qed.

  Lemma lax_slice_transport_wf c p r :
    lax_sliced_wf bs (lc_result c) -> in_buf bs (lipp_slice p) ->
    slice_transport c p = Ok r -> lax_sliced_wf bs r.
  Proof.
    intros W I. unfold slice_transport.
    destruct (lipp_fragmented p || has_stop (lc_result c)); [intros X; injection X as <-; exact W|].
    destruct (lipp_number p =? IPN_ICMP).
    { destruct (Icmpv4Slice.from_slice (lipp_slice p)) as [t|[e|ce]|b] eqn:Et; intros H; try discriminate;
        injection H as <-; [|now apply lax_with_stop_wf].
      apply lax_with_transport_wf; [exact W|]. cbn. eauto. }
    destruct (lipp_number p =? IPN_UDP).
    { destruct (UdpSlice.from_slice_lax (lipp_slice p)) as [t|[e|ce]|b] eqn:Et; intros H; try discriminate;
        injection H as <-; [|now apply lax_with_stop_wf].
      apply lax_with_transport_wf; [exact W|]. cbn. eauto. }
    destruct (lipp_number p =? IPN_TCP).
    { destruct (TcpSlice.from_slice (lipp_slice p)) as [t|[e|ce]|b] eqn:Et; intros H; try discriminate;
        injection H as <-; try (now apply lax_with_stop_wf).
      apply lax_with_transport_wf; [exact W|]. destruct t as (hl, t). cbn. eauto. }
    destruct (lipp_number p =? IPN_ICMPV6).
    { destruct (Icmpv6Slice.from_slice (lipp_slice p)) as [t|[e|ce]|b] eqn:Et; intros H; try discriminate;
        injection H as <-; [|now apply lax_with_stop_wf].
      apply lax_with_transport_wf; [exact W|]. cbn. eauto. }
    intros X. injection X as <-. exact W.
  Qed.

  Lemma lax_ip_payload_in_buf s i stop :
    in_buf bs s -> LaxIpSlice.from_slice s = Ok (i, stop) -> in_buf bs (lipp_slice (LaxIpSlice.payload i)).
  Proof.
    intros I E. apply lax_ip_wf in E. destruct i as [v|v]; cbn [lax_ip_good LaxIpSlice.payload] in *.
    - destruct E as (_ & _ & _ & S). eapply sub_of_in_buf; [exact I|exact S].
    - destruct E as (_ & _ & _ & S). eapply sub_of_in_buf; [exact I|exact S].
  Qed.

  Lemma lax_net_of_ip_prov s i stop :
    in_buf bs s -> LaxIpSlice.from_slice s = Ok (i, stop) -> lax_net_prov bs (net_of_ip i).
  Proof. intros I E. destruct i as [v|v]; cbn; eauto. Qed.

  Lemma lax_slice_ip_wf c s r :
    lax_sliced_wf bs (lc_result c) -> in_buf bs s -> slice_ip c s = Ok r -> lax_sliced_wf bs r.
  Proof.
    intros W I. unfold slice_ip.
    destruct (LaxIpSlice.from_slice s) as [[ip stop]|[l|ce]|b] eqn:Eip; intros H; try discriminate.
    - binv H d Ed. eapply lax_slice_transport_wf; [| |exact H].
      + cbn [lc_result]. apply lax_with_opt_stop_wf. apply lax_with_net_wf; [exact W|].
        eapply lax_net_of_ip_prov; eauto.
      + eapply lax_ip_payload_in_buf; eauto.
    - injection H as <-. now apply lax_with_stop_wf.
    - injection H as <-. now apply lax_with_stop_wf.
  Qed.

  Lemma lax_slice_arp_wf c s r :
    lax_sliced_wf bs (lc_result c) -> in_buf bs s -> slice_arp c s = Ok r -> lax_sliced_wf bs r.
  Proof.
    intros W I. unfold slice_arp.
    destruct (ArpPacketSlice.from_slice s) as [a|[e|ce]|b] eqn:Ea; intros H; try discriminate;
      injection H as <-; [|now apply lax_with_stop_wf].
    apply lax_with_net_wf; [exact W|]. cbn. eauto.
  Qed.

  Lemma lax_ether_loop_wf fuel :
    forall c ep r,
      lax_sliced_wf bs (lc_result c) -> in_buf bs (ep_slice ep) ->
      slice_ether_type_loop fuel c ep = Ok r -> lax_sliced_wf bs r.
  Proof.
    induction fuel as [|f IH]; intros c ep r W I H; [discriminate|].
    cbn [slice_ether_type_loop] in H.
    destruct (is_vlan_type (ep_ether_type ep)).
    { destruct (LINK_EXTS_CAP <=? len (lsp_exts (lc_result c))); [injection H as <-; exact W|].
      destruct (SingleVlanSlice.from_slice (ep_slice ep)) as [vlan|[e|ce]|b] eqn:Ev; try discriminate.
      2:{ injection H as <-. now apply lax_with_stop_wf. }
      binv H vp Evp. binv H r' Er'.
      pose proof (vlan_wf _ _ Ev) as (-> & Wv).
      eapply IH; [| |exact H].
      - cbn [lc_result]. eapply lax_push_ext_wf; [exact W| |exact Er']. cbn. eauto.
      - unfold SingleVlanSlice.payload in Evp. binv Evp et Eet. binv Evp pl Epl. injection Evp as <-.
        cbn [ep_slice]. unfold SingleVlanSlice.payload_slice in Epl. binv Epl n En.
        eapply sub_of_in_buf; [exact I|]. now exists 4, n. }
    destruct (ep_ether_type ep =? ET_MACSEC).
    { destruct (LINK_EXTS_CAP <=? len (lsp_exts (lc_result c))); [injection H as <-; exact W|].
      destruct (LaxMacsecSlice.from_slice (ep_slice ep)) as [m|[e|ce]|b] eqn:Em; try discriminate.
      2:{ injection H as <-. now apply lax_with_stop_wf. }
      2:{ injection H as <-. now apply lax_with_stop_wf. }
      binv H hl Ehl. binv H r' Er'.
      pose proof (lax_macsec_wf _ _ Em) as (_ & _ & Sp).
      assert (W' : lax_sliced_wf bs r').
      { eapply lax_push_ext_wf; [exact W| |exact Er']. cbn. eauto. }
      unfold LaxMacsecA.payload_slice in Sp.
      destruct (lms_payload m) as [e|inc ps].
      - eapply IH; [| |exact H]; [cbn [lc_result]; exact W'|]. cbn [ep_slice]. eapply sub_of_in_buf; [exact I|exact Sp].
      - injection H as <-. exact W'. }
    destruct (ep_ether_type ep =? ET_ARP); [eapply lax_slice_arp_wf; eauto|].
    destruct (ep_ether_type ep =? ET_IPV4); [eapply lax_slice_ip_wf; eauto|].
    destruct (ep_ether_type ep =? ET_IPV6); [eapply lax_slice_ip_wf; eauto|].
    injection H as <-. exact W.
  Qed.

  Definition lax_entry (et : N) (p : lax_sliced_packet) : Prop :=
    LaxSlicedPacket.from_ethernet bs = Ok p \/ LaxSlicedPacket.from_ether_type et bs = Ok p \/
    LaxSlicedPacket.from_ip bs = Ok p.

  Theorem lax_sliced_wf_entry et p : lax_entry et p -> lax_sliced_wf bs p.
  Proof.
    pose proof (in_buf_whole bs) as I.
    intros [H|[H|H]].
    - unfold LaxSlicedPacket.from_ethernet, parse_from_ethernet2 in H.
      binv H r Er. binv H ep Eep.
      pose proof (eth2_plain_wf _ _ Er) as (-> & _).
      unfold slice_ether_type in H. eapply lax_ether_loop_wf; [| |exact H].
      + cbn [lc_result]. apply lax_with_link_wf; [apply lax_empty_wf|]. cbn. eauto.
      + unfold Ethernet2Slice.payload in Eep. binv Eep et' Eet. binv Eep pl Epl. injection Eep as <-.
        cbn [ep_slice]. unfold Ethernet2Slice.payload_slice in Epl. binv Epl n En.
        eapply sub_of_in_buf; [exact I|]. now exists 14, n.
    - unfold LaxSlicedPacket.from_ether_type, parse_from_ether_type, slice_ether_type in H.
      eapply lax_ether_loop_wf; [| |exact H].
      + cbn [lc_result]. apply lax_with_link_wf; [apply lax_empty_wf|]. cbn. exact I.
      + cbn. exact I.
    - unfold LaxSlicedPacket.from_ip, parse_from_ip in H.
      binv H x Ex. destruct x as (ip, stop). binv H off Eoff.
      eapply lax_slice_transport_wf; [| |exact H].
      + cbn [lc_result]. unfold lax_sliced_wf, LINK_EXTS_CAP. cbn.
        repeat split; auto; [|lia]. eapply lax_net_of_ip_prov; eauto.
      + eapply lax_ip_payload_in_buf; eauto.
  Qed.
End LaxLift.

Section LaxSafe.
  Variable bs : bytes.
  Hypothesis Hok : bytes_ok bs.

  Lemma lax_ext_ok x : lax_ext_prov bs x ->
    Forall nobug (LaxLinkExtA.accessors x) /\ Forall (buf_ok bs) (LaxLinkExtA.windows x).
  Proof.
    destruct x as [s|m]; cbn [lax_ext_prov LaxLinkExtA.accessors LaxLinkExtA.windows].
    - intros (src & I & E). apply vlan_wf in E. destruct E as (-> & W).
      apply stored_ok; [exact I| |now apply vlan_windows_ok].
      apply Forall_app. split; [now apply vlan_accessors_ok|].
      unfold wf_vlan in W. cbn [LaxLinkExtA.header_len LaxLinkExtA.to_header LaxLinkExtA.payload].
      forall_ok unf_vlan.
    - intros (src & I & E). apply lax_macsec_wf in E. destruct E as (W & Sh & Sp). split.
      + pose proof (macsech_accessors_ok _ W) as F.
        assert (Ep : nobug (run (LaxMacsecA.ether_payload m))).
        { apply nobug_run, okr_nobug. unfold LaxMacsecA.ether_payload.
          destruct (lms_payload m); eexists; reflexivity. }
        unfold LaxMacsecA.accessors. cbn [LaxLinkExtA.header_len LaxLinkExtA.to_header LaxLinkExtA.payload].
        unfold LaxMacsecA.next_ether_type.
        rewrite Forall_forall in F.
        repeat (apply Forall_app; split); [now apply Forall_forall| |].
        * constructor; [exact Ep|]. constructor; [|constructor]. apply F. cbn. tauto.
        * constructor; [apply F; cbn; tauto|]. constructor; [apply F; cbn; tauto|].
          constructor; [exact Ep|constructor].
      + unfold LaxMacsecA.windows.
        constructor; [apply buf_ok_Ok; eapply sub_of_in_buf; [exact I|exact Sh]|].
        constructor; [|constructor]. apply buf_ok_Ok. eapply sub_of_in_buf; [exact I|exact Sp].
  Qed.

  Lemma lax_ip_ok i src : in_buf bs src -> lax_ip_good i src ->
    Forall nobug (LaxIpSliceA.accessors i) /\
    Forall (buf_ok bs) (LaxSlicedPacketA.net_windows (net_of_ip i)).
  Proof.
    intros I G. destruct i as [v|v]; cbn [lax_ip_good net_of_ip] in *; destruct G as (W & In).
    - destruct (ipv4_ok bs Hok (strict_v4 v) src I W In) as (F1 & F2). split; [|exact F2].
      unfold LaxIpSliceA.accessors. apply Forall_app. split; [exact F1|].
      destruct W as ((L1 & L2) & _). cbn [strict_v4 v4_header] in L1, L2.
      cbn [LaxIpSliceA.is_fragmenting_payload LaxIpSliceA.source_addr LaxIpSliceA.destination_addr].
      unfold LaxIpv4SliceA.is_payload_fragmented.
      forall_ok unf_ipv4h.
    - destruct (ipv6_ok bs Hok (strict_v6 v) src I W In) as (F1 & F2). split; [|exact F2].
      unfold LaxIpSliceA.accessors. apply Forall_app. split; [exact F1|].
      destruct W as (L & _). unfold wf_ipv6h in L. cbn [strict_v6 v6_header] in L.
      cbn [LaxIpSliceA.is_fragmenting_payload LaxIpSliceA.source_addr LaxIpSliceA.destination_addr].
      forall_ok unf_ipv6h.
  Qed.

  Lemma lax_net_ok n : lax_net_prov bs n ->
    Forall nobug (LaxSlicedPacketA.net_accessors n) /\ Forall (buf_ok bs) (LaxSlicedPacketA.net_windows n).
  Proof.
    destruct n as [v|v|a]; cbn [lax_net_prov LaxSlicedPacketA.net_accessors].
    - intros (src & stop & I & E). apply lax_ip_wf in E. exact (lax_ip_ok (LIpV4 v) src I E).
    - intros (src & stop & I & E). apply lax_ip_wf in E. exact (lax_ip_ok (LIpV6 v) src I E).
    - intros P. exact (net_ok bs Hok (NtArp a) P).
  Qed.

  Lemma lax_transport_ok t : lax_transport_prov bs t ->
    Forall nobug (SlicedPacketA.transport_accessors t) /\
    Forall (buf_ok bs) (SlicedPacketA.transport_windows t).
  Proof.
    destruct t as [s|hl s|s|s]; cbn [lax_transport_prov]; intros P;
      [|exact (transport_ok bs (TrTcp hl s) P)|exact (transport_ok bs (TrIcmpv4 s) P)
       |exact (transport_ok bs (TrIcmpv6 s) P)].
    destruct P as (src & I & E). apply udp_lax_wf in E. destruct E as (W & S).
    assert (Is : in_buf bs s) by (eapply sub_of_in_buf; [exact I|exact S]).
    apply stored_ok; [exact Is|now apply udp_accessors_ok|now apply udp_windows_ok].
  Qed.

  Import LaxSlicedPacketA.

  (* push_unchecked into ArrayVec<VlanId, 3>: at most one push per link extension *)
  Lemma vlan_ids_loop_ok exts :
    Forall (lax_ext_prov bs) exts ->
    forall acc, len acc + len exts <= LINK_EXTS_CAP -> okr (vlan_ids_loop exts acc).
  Proof.
    induction 1 as [|x l Px Pl IH]; intros acc L; cbn [vlan_ids_loop]; [apply okr_Ok|].
    rewrite len_cons in L. destruct x as [s|m].
    - destruct Px as (src & I & E). apply vlan_wf in E. destruct E as (-> & W). unfold wf_vlan in W.
      unfold SingleVlanA.vlan_identifier. oksteps.
      + apply IH. rewrite len_app. change (len [be16 (N.land x 15) x0]) with 1. lia.
      + exfalso. lia.
    - apply IH. lia.
  Qed.

  Lemma lax_ext_payload_ok x : lax_ext_prov bs x ->
    exists o, LaxLinkExtA.payload x = Ok o /\ optP (fun e => in_buf bs (lep_slice e)) o.
  Proof.
    destruct x as [s|m]; cbn [lax_ext_prov LaxLinkExtA.payload].
    - intros P. destruct (vlan_payload_prov bs s P) as (et & w & Eet & Ew & Iw).
      unfold SingleVlanA.payload. rewrite Eet. cbn [bind]. rewrite Ew. cbn [bind].
      eexists. split; [reflexivity|exact Iw].
    - intros (src & I & E). apply lax_macsec_wf in E. destruct E as (_ & _ & Sp).
      unfold LaxMacsecA.ether_payload, LaxMacsecA.payload_slice in *.
      destruct (lms_payload m) as [e|inc ps]; eexists; (split; [reflexivity|]); cbn; auto.
      eapply sub_of_in_buf; [exact I|exact Sp].
  Qed.

  Lemma len_source_scan_ok exts :
    Forall (lax_ext_prov bs) exts -> forall src, okr (len_source_scan exts src).
  Proof.
    induction 1 as [|x l Px Pl IH]; intros src; cbn [len_source_scan]; [apply okr_Ok|].
    destruct (lax_ext_payload_ok x Px) as (o & -> & _). cbn [bind]. destruct o; apply IH.
  Qed.

  Lemma last_ext_in l x : last_ext l = Some x -> In x l.
  Proof.
    unfold last_ext. destruct (rev l) as [|y r] eqn:E; [discriminate|]. intros X. injection X as ->.
    exact (rev_head_in l x r E).
  Qed.

  Lemma lax_ether_payload_ok p : lax_sliced_wf bs p ->
    exists o, ether_payload p = Ok o /\ optP (fun e => in_buf bs (lep_slice e)) o.
  Proof.
    intros (A & B & _). unfold ether_payload.
    destruct (last_ext (lsp_exts p)) as [x|] eqn:El.
    - apply last_ext_in in El. pose proof (proj1 (Forall_forall _ _) B x El) as Px.
      destruct x as [v|m]; [|exact (lax_ext_payload_ok (LLeMacsec m) Px)].
      destruct (vlan_payload_prov bs v Px) as (et & w & -> & Ew & Iw). cbn [bind].
      destruct (len_source_scan_ok (lsp_exts p) B LsSlice) as (sc & ->). cbn [bind]. rewrite Ew. cbn [bind].
      eexists. split; [reflexivity|exact Iw].
    - destruct (lsp_link p) as [[s|h w|e]|]; cbn [optP] in A.
      + destruct (eth2_payload_prov bs s A) as (et & w & Eet & Ew & Iw).
        unfold Ethernet2A.payload. rewrite Eet. cbn [bind]. rewrite Ew. cbn [bind].
        eexists. split; [reflexivity|exact Iw].
      + destruct (sll_payload_prov bs h w A) as (v & pw & Ep & Epw & Ipw). rewrite Ep. cbn [bind].
        destruct v; try (eexists; split; [reflexivity|exact Logic.I]);
          unfold LinuxSllA.payload; cbn [fst]; rewrite Ep; cbn [bind]; rewrite Epw; cbn [bind];
          (eexists; split; [reflexivity|exact Ipw]).
      + eexists. split; [reflexivity|]. exact A.
      + eexists. split; [reflexivity|]. exact Logic.I.
  Qed.

  Lemma lax_packet_accessors_ok p : lax_sliced_wf bs p -> Forall nobug (packet_accessors p).
  Proof.
    intros W. unfold packet_accessors.
    constructor; [intros b; discriminate|].
    constructor.
    { apply nobug_run, okr_nobug. unfold vlan_ids. destruct W as (_ & B & _ & _ & L).
      apply vlan_ids_loop_ok; [exact B|]. rewrite len_nil. lia. }
    constructor.
    { apply nobug_run, okr_nobug. destruct (lax_ether_payload_ok p W) as (o & -> & _). apply okr_Ok. }
    constructor; [|constructor].
    apply nobug_run, okr_nobug. unfold ip_payload. destruct (lsp_net p) as [[v|v|a]|]; apply okr_Ok.
  Qed.

  Lemma lax_packet_windows_ok p : lax_sliced_wf bs p -> Forall (buf_ok bs) (packet_windows p).
  Proof.
    intros W. unfold packet_windows. destruct (lax_ether_payload_ok p W) as (o & -> & P).
    destruct o as [e|]; [|constructor]. constructor; [|constructor]. now apply buf_ok_Ok.
  Qed.

  Theorem lax_sliced_ok p : lax_sliced_wf bs p ->
    Forall nobug (LaxSlicedPacketA.accessors p) /\ Forall (buf_ok bs) (LaxSlicedPacketA.windows p).
  Proof.
    intros W. pose proof W as (A & B & C & D & _).
    unfold LaxSlicedPacketA.accessors, LaxSlicedPacketA.windows.
    split; repeat (apply Forall_app; split).
    1, 6: eapply optP_ok; [|exact A]; intros a Ha; apply (link_ok bs a Ha).
    1, 5: eapply Forall_flat_map; [|exact B]; intros a Ha; apply (lax_ext_ok a Ha).
    1, 4: eapply optP_ok; [|exact C]; intros a Ha; apply (lax_net_ok a Ha).
    1, 3: eapply optP_ok; [|exact D]; intros a Ha; apply (lax_transport_ok a Ha).
    - now apply lax_packet_accessors_ok.
    - now apply lax_packet_windows_ok.
  Qed.
End LaxSafe.

(* the per-type invariants of AccessProofs.v hold for every stored component *)
Definition link_inv (bs : bytes) (l : link_slice) : Prop :=
  match l with
  | LkEthernet2 s => in_buf bs s /\ wf_eth2 (mkEth2 0 s)
  | LkLinuxSll h w => in_buf bs h /\ in_buf bs w /\ wf_sll (h, w)
  | LkEtherPayload e => in_buf bs (ep_slice e)
  end.
Definition lax_ext_inv (bs : bytes) (x : lax_link_ext_slice) : Prop :=
  match x with
  | LLeVlan s => in_buf bs s /\ wf_vlan s
  | LLeMacsec m =>
      in_buf bs (lms_header m) /\ wf_macsech (lms_header m) /\ in_buf bs (LaxMacsecA.payload_slice m)
  end.
Definition lax_net_inv (bs : bytes) (n : lax_net_slice) : Prop :=
  match n with
  | LNtIpv4 v =>
      in_buf bs (lv4_header v) /\ wf_ipv4h (lv4_header v) /\
      match lv4_auth v with Some a => in_buf bs a /\ wf_ah a | None => True end /\
      in_buf bs (lipp_slice (lv4_payload v))
  | LNtIpv6 v =>
      in_buf bs (lv6_header v) /\ wf_ipv6h (lv6_header v) /\
      in_buf bs (x6_slice (lv6_exts v)) /\ exts_good (lv6_exts v) /\
      in_buf bs (lipp_slice (lv6_payload v))
  | LNtArp a => in_buf bs a /\ wf_arp a
  end.
Definition transport_inv (bs : bytes) (t : transport_slice) : Prop :=
  match t with
  | TrUdp s => in_buf bs s /\ wf_udp s
  | TrTcp hl s => in_buf bs s /\ wf_tcp (hl, s)
  | TrIcmpv4 s => in_buf bs s /\ wf_icmp4 s
  | TrIcmpv6 s => in_buf bs s /\ wf_icmp6 s
  end.
Definition lax_sliced_inv (bs : bytes) (p : lax_sliced_packet) : Prop :=
  optP (link_inv bs) (lsp_link p) /\ Forall (lax_ext_inv bs) (lsp_exts p) /\
  optP (lax_net_inv bs) (lsp_net p) /\ optP (transport_inv bs) (lsp_transport p) /\
  len (lsp_exts p) <= LINK_EXTS_CAP.

Lemma optP_impl {A} (P Q : A -> Prop) o : (forall a, P a -> Q a) -> optP P o -> optP Q o.
Proof. intros H. destruct o; cbn; auto. Qed.

Lemma link_prov_inv bs l : link_prov bs l -> link_inv bs l.
Proof.
  destruct l as [s|h w|e]; cbn [link_prov link_inv]; [| |auto].
  - intros (src & I & X). apply eth2_plain_wf in X. destruct X as (-> & W). auto.
  - intros (src & I & X). apply sll_wf in X. destruct X as (W & Ew & Sh). cbn [fst snd] in *. subst w.
    split; [exact (sub_of_in_buf bs _ _ I Sh)|]. auto.
Qed.

Lemma lax_ext_prov_inv bs x : lax_ext_prov bs x -> lax_ext_inv bs x.
Proof.
  destruct x as [s|m]; cbn [lax_ext_prov lax_ext_inv]; intros (src & I & X).
  - apply vlan_wf in X. destruct X as (-> & W). auto.
  - apply lax_macsec_wf in X. destruct X as (W & Sh & Sp).
    split; [exact (sub_of_in_buf bs _ _ I Sh)|]. split; [exact W|exact (sub_of_in_buf bs _ _ I Sp)].
Qed.

Lemma lax_net_prov_inv bs n : lax_net_prov bs n -> lax_net_inv bs n.
Proof.
  destruct n as [v|v|a]; cbn [lax_net_prov lax_net_inv].
  - intros (src & stop & I & X). apply lax_ip_wf in X. cbn [lax_ip_good] in X.
    destruct X as ((Wh & Wa) & Sh & Sa & Sp). cbn [strict_v4 v4_header v4_auth v4_payload strict_ipp ipp_slice] in *.
    split; [exact (sub_of_in_buf bs _ _ I Sh)|]. split; [exact Wh|]. split; [|exact (sub_of_in_buf bs _ _ I Sp)].
    destruct (lv4_auth v) as [a|]; [|exact Logic.I]. split; [exact (sub_of_in_buf bs _ _ I Sa)|exact Wa].
  - intros (src & stop & I & X). apply lax_ip_wf in X. cbn [lax_ip_good] in X.
    destruct X as ((Wh & Wx) & Sh & Sx & Sp). cbn [strict_v6 v6_header v6_exts v6_payload strict_ipp ipp_slice] in *.
    split; [exact (sub_of_in_buf bs _ _ I Sh)|]. split; [exact Wh|].
    split; [exact (sub_of_in_buf bs _ _ I Sx)|]. split; [exact Wx|exact (sub_of_in_buf bs _ _ I Sp)].
  - intros (src & I & X). apply arp_wf in X. destruct X as (W & S).
    split; [exact (sub_of_in_buf bs _ _ I S)|exact W].
Qed.

Lemma transport_prov_inv bs t : transport_prov bs t -> transport_inv bs t.
Proof.
  destruct t as [s|hl s|s|s]; cbn [transport_prov transport_inv]; intros (src & I & X).
  - apply udp_wf in X. destruct X as (W & S). split; [exact (sub_of_in_buf bs _ _ I S)|exact W].
  - apply tcp_wf in X. destruct X as (W & Es). cbn [snd] in Es. subst src. auto.
  - apply icmp4_wf in X. destruct X as (-> & W). auto.
  - apply icmp6_wf in X. destruct X as (-> & W). auto.
Qed.

(* the lax transport slicers are the strict ones but for UDP *)
Lemma lax_transport_prov_inv bs t : lax_transport_prov bs t -> transport_inv bs t.
Proof.
  destruct t as [s|hl s|s|s];
    [|exact (transport_prov_inv bs (TrTcp hl s))|exact (transport_prov_inv bs (TrIcmpv4 s))
     |exact (transport_prov_inv bs (TrIcmpv6 s))].
  intros (src & I & X). apply udp_lax_wf in X. destruct X as (W & S).
  split; [exact (sub_of_in_buf bs _ _ I S)|exact W].
Qed.

Lemma lax_wf_inv bs p : lax_sliced_wf bs p -> lax_sliced_inv bs p.
Proof.
  intros (A & B & C & D & E). unfold lax_sliced_inv. repeat split; [| | | |exact E].
  - exact (optP_impl _ _ _ (link_prov_inv bs) A).
  - exact (Forall_impl _ (lax_ext_prov_inv bs) B).
  - exact (optP_impl _ _ _ (lax_net_prov_inv bs) C).
  - exact (optP_impl _ _ _ (lax_transport_prov_inv bs) D).
Qed.

(* provenance + invariants of every component of every lax result *)
Theorem lax_packet_wf bs et p : lax_entry bs et p -> lax_sliced_wf bs p /\ lax_sliced_inv bs p.
Proof. intros E. pose proof (lax_sliced_wf_entry bs et p E) as W. split; [exact W|now apply lax_wf_inv]. Qed.

Theorem lax_packet_accessors_no_bug bs et p :
  bytes_ok bs -> lax_entry bs et p ->
  forall r, In r (LaxSlicedPacketA.accessors p) -> forall b, r <> Bug b.
Proof.
  intros Hok E. pose proof (lax_sliced_wf_entry bs et p E) as W.
  exact (proj1 (Forall_forall _ _) (proj1 (lax_sliced_ok bs Hok p W))).
Qed.

Theorem lax_packet_accessors_total bs et p :
  bytes_ok bs -> lax_entry bs et p ->
  forall r, In r (LaxSlicedPacketA.accessors p) -> r = Ok tt \/ exists e, r = Err e.
Proof.
  intros Hok E r Hr. pose proof (lax_packet_accessors_no_bug bs et p Hok E r Hr) as F.
  destruct r as [[]|e|b]; [now left|right; eauto|]. exfalso. now apply (F b).
Qed.

Theorem lax_packet_windows_inside bs et p :
  bytes_ok bs -> lax_entry bs et p ->
  forall r, In r (LaxSlicedPacketA.windows p) ->
    exists w, r = Ok w /\ s_off w + s_len w <= len bs /\
              snd w = take (s_len w) (drop (s_off w) bs).
Proof.
  intros Hok E r Hr. pose proof (lax_sliced_wf_entry bs et p E) as W.
  destruct (proj1 (Forall_forall _ _) (proj2 (lax_sliced_ok bs Hok p W)) r Hr) as (w & -> & I). exists w. split; [reflexivity|now apply in_buf_window].
Qed.

(* the extension iterator on EVERY Ipv6ExtensionsSlice built by from_slice_lax (any start
   number, any slice, any stop error): terminates within length+1 calls of next, no Bug,
   yields at most len/8 items, each a complete header satisfying its invariant, tiling
   the stored slice exactly *)
Theorem lax_exts_iter_items nh s x nx rest err :
  LaxIpv6Exts.from_slice_lax nh s = Ok (x, nx, rest, err) ->
  exists l, Ipv6ExtIterA.items x = Ok l /\
            8 * len l <= s_len (x6_slice x) /\
            tiles (s_off (x6_slice x)) (map item_win l) (s_off (x6_slice x) + s_len (x6_slice x)) /\
            Forall item_wf l /\
            Forall (fun i => sub_of (ext_item_slice i) (x6_slice x)) l.
Proof.
  intros H. destruct (lax_exts_good _ _ _ _ _ _ H) as ((l & E & G1 & G2 & G3 & G4) & _).
  exists l. auto.
Qed.

(* the same for the IPv6 slice stored in a lax whole-packet result *)
Theorem lax_packet_exts_iter bs et p v :
  lax_entry bs et p -> lsp_net p = Some (LNtIpv6 v) ->
  exists l, Ipv6ExtIterA.items (lv6_exts v) = Ok l /\
            8 * len l <= s_len (x6_slice (lv6_exts v)) /\
            tiles (s_off (x6_slice (lv6_exts v))) (map item_win l)
                  (s_off (x6_slice (lv6_exts v)) + s_len (x6_slice (lv6_exts v))) /\
            Forall item_wf l /\
            Forall (fun i => sub_of (ext_item_slice i) (x6_slice (lv6_exts v))) l.
Proof.
  intros E Hn. pose proof (lax_packet_wf bs et p E) as (_ & _ & _ & C & _).
  rewrite Hn in C. cbn in C. destruct C as (_ & _ & _ & (l & El & G1 & G2 & G3 & G4) & _).
  exists l. split; [exact El|]. split; [exact G1|]. split; [exact G2|]. split; [exact G3|exact G4].
Qed.

(* single layers: for EVERY slice s and every value a lax constructor returns for it *)
Lemma lax_ip_single s i :
  lax_ip_good i s -> bytes_ok (snd s) ->
  Forall nobug (LaxIpSliceA.accessors i) /\ Forall (win_ok s) (LaxIpSliceA.windows i).
Proof.
  intros G Hok. destruct i as [v|v]; cbn [lax_ip_good] in G; destruct G as (W & In).
  - split.
    + unfold LaxIpSliceA.accessors. apply Forall_app. split.
      * apply (ipv4_accessors_ok (strict_v4 v) W). cbn [strict_v4 v4_auth].
        destruct In as (_ & Sa & _). cbn [strict_v4 v4_auth] in Sa.
        destruct (lv4_auth v) as [a|]; [|exact Logic.I]. eapply sub_of_bytes_ok; eauto.
      * destruct W as ((L1 & L2) & _). cbn [strict_v4 v4_header] in L1, L2.
        cbn [LaxIpSliceA.is_fragmenting_payload LaxIpSliceA.source_addr LaxIpSliceA.destination_addr].
        unfold LaxIpv4SliceA.is_payload_fragmented. forall_ok unf_ipv4h.
    + cbn [LaxIpSliceA.windows]. destruct In as (Sh & Sa & _).
      eapply Forall_impl; [|apply (ipv4_windows_ok (strict_v4 v) W)]. cbn [strict_v4 v4_header v4_auth] in *.
      intros r (w & E & S). exists w. split; [exact E|]. destruct S as [S|S].
      * eapply sub_of_trans; eauto.
      * destruct (lv4_auth v) as [a|]; [|contradiction]. eapply sub_of_trans; eauto.
  - split.
    + unfold LaxIpSliceA.accessors. apply Forall_app. split.
      * apply (ipv6_accessors_ok (strict_v6 v) W). destruct In as (_ & Sx & _).
        eapply sub_of_bytes_ok; eauto.
      * destruct W as (L & _). unfold wf_ipv6h in L. cbn [strict_v6 v6_header] in L.
        cbn [LaxIpSliceA.is_fragmenting_payload LaxIpSliceA.source_addr LaxIpSliceA.destination_addr].
        forall_ok unf_ipv6h.
    + cbn [LaxIpSliceA.windows]. destruct In as (_ & Sx & _).
      eapply win_ok_mono; [exact Sx|]. apply (ipv6_windows_ok (strict_v6 v) W).
Qed.

Theorem lax_single_layer_ok :
  (forall s m, LaxMacsecSlice.from_slice s = Ok m ->
     Forall nobug (LaxMacsecA.accessors m) /\ Forall (win_ok s) (LaxMacsecA.windows m)) /\
  (forall s v, (exists stop, LaxIpv4Slice.from_slice s = Ok (v, stop)) \/
               (exists stop, LaxIpSlice.from_slice s = Ok (LIpV4 v, stop)) ->
     bytes_ok (snd s) ->
     Forall nobug (LaxIpSliceA.accessors (LIpV4 v)) /\ Forall (win_ok s) (LaxIpSliceA.windows (LIpV4 v))) /\
  (forall s v, (exists stop, LaxIpv6Slice.from_slice s = Ok (v, stop)) \/
               (exists stop, LaxIpSlice.from_slice s = Ok (LIpV6 v, stop)) ->
     bytes_ok (snd s) ->
     Forall nobug (LaxIpSliceA.accessors (LIpV6 v)) /\ Forall (win_ok s) (LaxIpSliceA.windows (LIpV6 v)) /\
     win_ok s (Ok (x6_slice (lv6_exts v)))).
Proof.
  repeat match goal with |- _ /\ _ => split end.
  - intros s m H. apply lax_macsec_wf in H. destruct H as (W & Sh & Sp).
    pose proof (macsech_accessors_ok _ W) as F.
    unfold LaxMacsecA.accessors, LaxMacsecA.windows. split.
    + apply Forall_app. split; [exact F|]. constructor.
      * apply nobug_run, okr_nobug. unfold LaxMacsecA.ether_payload. destruct (lms_payload m); eexists; reflexivity.
      * constructor; [|constructor]. unfold LaxMacsecA.next_ether_type.
        rewrite Forall_forall in F. apply F. cbn. tauto.
    + constructor; [eexists; split; [reflexivity|exact Sh]|].
      constructor; [|constructor]. eexists; split; [reflexivity|exact Sp].
  - intros s v H Hok.
    assert (G : lax_ip_good (LIpV4 v) s)
      by (destruct H as [(stop & H)|(stop & H)]; [exact (lax_ipv4_wf _ _ _ H)|exact (lax_ip_wf _ _ _ H)]).
    now apply lax_ip_single.
  - intros s v H Hok.
    assert (G : lax_ip_good (LIpV6 v) s)
      by (destruct H as [(stop & H)|(stop & H)]; [exact (lax_ipv6_wf _ _ _ H)|exact (lax_ip_wf _ _ _ H)]).
    destruct (lax_ip_single s (LIpV6 v) G Hok) as (A & B). split; [exact A|]. split; [exact B|].
    destruct G as (_ & _ & Sx & _). eexists. split; [reflexivity|exact Sx].
Qed.
