(* Parse/UsizeBounds.v -- fixed-width overflow.  The models of Parse/Slices.v compute lengths
   in unbounded N, so an overflowing usize `+` / `*` (a panic in debug builds, a wrap-around
   in release builds) is not a value of the model.  Here the strict single-layer
   constructors that add or multiply are written a second time with every `+` and `*` of the
   Rust source CHECKED against a usize of M values (`addC` / `mulC` return Bug SITE_OVERFLOW
   when the exact result is >= M); the theorem: for every M >= 2^17 (in particular the
   32-bit and the 64-bit usize) and every slice whose elements are bytes, the checked
   constructor IS the constructor of Parse/Slices.v -- no sum or product overflows, whatever
   the length of the slice: every operand is a widened u8 / u16 field or a constant
   ((b+2)*4 <= 1028, (b+1)*8 <= 2048, 8+2*hw+2*pr <= 1028, ihl*4 <= 60, 40+payload_len <= 65575,
   MACsec header_len + short_len <= 16+63).
   The other constructors (Ethernet II, VLAN, Linux SLL, fragment header, UDP, TCP, ICMP)
   contain no usize addition or multiplication (TCP: shifts on a u8; with_crc32_fcs: the
   constant 14 + 4).  Subtraction is partial in the model already (subN).
   NOT covered here: the offset bookkeeping of the packet cursors and of the LenError
   fix-ups (offset + header_len, offset + pointer difference, layer_start_offset + offset):
   sums of positions inside the input. *)
From EP Require Import Base.Bytes Parse.Types Parse.Slices Parse.Repr Parse.Access Parse.AccessProofs.
From EP Require Parse.CtorsTotal.
From Coq Require Import ZArith Lia ZifyN ZifyBool.

Local Open Scope N_scope.

Definition SITE_OVERFLOW : N := 9.   (* `attempt to add / multiply with overflow` *)

(* a + b, a * b on a usize with M values *)
Definition addC (M a b : N) : res N := if a + b <? M then Ok (a + b) else Bug SITE_OVERFLOW.
Definition mulC (M a b : N) : res N := if a * b <? M then Ok (a * b) else Bug SITE_OVERFLOW.

Lemma addC_ok M a b : a + b < M -> addC M a b = Ok (a + b).
Proof. intros H. unfold addC. destruct (a + b <? M) eqn:E; [reflexivity|lia]. Qed.
Lemma mulC_ok M a b : a * b < M -> mulC M a b = Ok (a * b).
Proof. intros H. unfold mulC. destruct (a * b <? M) eqn:E; [reflexivity|lia]. Qed.

(* a 16-bit field read from a slice of bytes *)
Lemma rd16_u16 h i v : bytes_ok (snd h) -> rd16 h i = Ok v -> v < 65536.
Proof.
  intros Hok E. unfold rd16 in E.
  destruct (rdU h i) as [a|?|?] eqn:Ea; cbn [bind] in E; try discriminate.
  destruct (rdU h (i + 1)) as [c|?|?] eqn:Eb; cbn [bind] in E; try discriminate.
  injection E as <-. pose proof (rdU_byte h i a Hok Ea). pose proof (rdU_byte h (i + 1) c Hok Eb).
  unfold be16. lia.
Qed.

(* the checked primitives are real: they do report an overflow *)
Lemma addC_overflow : addC (2 ^ 32) 4294967295 1 = Bug SITE_OVERFLOW.
Proof. reflexivity. Qed.

Section Checked.
  Variable M : N.

  (* MacsecHeaderSlice::from_slice: required_len = 6 + (2|0) + (8|0) *)
  Definition macsec_header_from_slice (s : slice) : res slice :=
    if s_len s <? 6 then lerr 6 (s_len s) LsSlice LyMacsecHeader
    else
      let* tci_an := rdU s 0 in
      if Macsec.bit tci_an 128 then Err (EContent CeMacsecVersion)
      else
        let unmodified := N.land tci_an 12 =? 0 in
        let* _ :=
          (if unmodified then
             let* b1 := rdU s 1 in
             if N.land b1 63 =? 1 then Err (EContent CeMacsecUnmodifiedShortLen) else Ok tt
           else Ok tt) in
        let* r1 := addC M 6 (if unmodified then 2 else 0) in
        let* required_len := addC M r1 (if Macsec.bit tci_an 32 then 8 else 0) in
        if s_len s <? required_len then lerr required_len (s_len s) LsSlice LyMacsecHeader
        else subU s 0 required_len.

  (* MacsecSlice::from_slice: header.len() + required payload len *)
  Definition macsec_from_slice (s : slice) : res macsec_slice :=
    let* header := macsec_header_from_slice s in
    let* epl := Macsec.expected_payload_len header in
    let* pls :=
      match epl with
      | Some req_payload_len =>
          let* required_len := addC M (s_len header) req_payload_len in
          if s_len s <? required_len then
            lerr required_len (s_len s) LsMacsecShortLength LyMacsecPacket
          else
            let* p := subU s (s_len header) req_payload_len in
            Ok (p, LsMacsecShortLength)
      | None =>
          let* n := subN (s_len s) (s_len header) in
          let* p := subU s (s_len header) n in
          Ok (p, LsSlice)
      end in
    let '(payload_slice, src) := pls in
    let* net := Macsec.next_ether_type header in
    match net with
    | Some et => Ok (mkMacsecSlice header (MpUnmodified (mkEtherPayload et src payload_slice)))
    | None => Ok (mkMacsecSlice header (MpModified payload_slice))
    end.

  (* ArpPacketSlice::from_slice: 8 + hw*2 + pr*2 *)
  Definition arp_from_slice (s : slice) : res slice :=
    if s_len s <? 8 then lerr 8 (s_len s) LsSlice LyArp
    else
      let* hw := rdU s 4 in
      let* pr := rdU s 5 in
      let* hw2 := mulC M hw 2 in
      let* a := addC M 8 hw2 in
      let* pr2 := mulC M pr 2 in
      let* min_len := addC M a pr2 in
      if s_len s <? min_len then lerr min_len (s_len s) LsArpAddrLengths LyArp
      else subU s 0 min_len.

  (* Ipv4HeaderSlice::from_slice: ihl * 4 *)
  Definition ipv4_header_from_slice (s : slice) : res slice :=
    if s_len s <? 20 then lerr 20 (s_len s) LsSlice LyIpv4Header
    else
      let* v := rdU s 0 in
      let version_number := N.shiftr v 4 in
      let ihl := N.land v 15 in
      if negb (version_number =? 4) then Err (EContent (CeIpv4Version version_number))
      else if ihl <? 5 then Err (EContent (CeIpv4Ihl ihl))
      else
        let* header_length := mulC M ihl 4 in
        if s_len s <? header_length then lerr header_length (s_len s) LsSlice LyIpv4Header
        else subU s 0 header_length.

  (* IpAuthHeaderSlice::from_slice: (payload_len_enc + 2) * 4 *)
  Definition auth_from_slice (s : slice) : res slice :=
    if s_len s <? 12 then lerr 12 (s_len s) LsSlice LyIpAuthHeader
    else
      let* payload_len_enc := rdU s 1 in
      if payload_len_enc <? 1 then Err (EContent CeAuthZeroPayloadLen)
      else
        let* p2 := addC M payload_len_enc 2 in
        let* l := mulC M p2 4 in
        if s_len s <? l then lerr l (s_len s) LsSlice LyIpAuthHeader
        else subU s 0 l.

  (* Ipv6RawExtHeaderSlice::from_slice: (slice[1] + 1) * 8 *)
  Definition raw_from_slice (s : slice) : res slice :=
    if s_len s <? 8 then lerr 8 (s_len s) LsSlice LyIpv6ExtHeader
    else
      let* b1 := (match rd (snd s) 1 with Some v => Ok v | None => Bug SITE_INDEX end) in
      let* b11 := addC M b1 1 in
      let* l := mulC M b11 8 in
      if s_len s <? l then lerr l (s_len s) LsSlice LyIpv6ExtHeader
      else subU s 0 l.

  (* Ipv6Slice::from_slice / the IPv6 arm of IpSlice::from_slice (shared tail):
     Ipv6Header::LEN + payload_length.  The extension walk it calls is the model's; its
     arithmetic is that of the raw / authentication header constructors above. *)
  Definition ipv6_finish (s header : slice) : res ipv6_slice :=
    let* pl := Ipv6HeaderSlice.payload_length header in
    let* hp :=
      (if (0 =? pl) && (40 <? s_len s) then
         let* n := subN (s_len s) 40 in
         let* p := subU s 40 n in
         Ok (p, LsSlice)
       else
         let* expected_len := addC M 40 pl in
         if s_len s <? expected_len then lerr expected_len (s_len s) LsSlice LyIpv6Packet
         else
           let* p := subU s 40 pl in
           Ok (p, LsIpv6HeaderPayloadLen)) in
    let '(header_payload, src) := hp in
    let* nh := Ipv6HeaderSlice.next_header header in
    let* x :=
      match Ipv6ExtensionsSlice.from_slice nh header_payload with
      | Err (ELen e) => Err (ELen (le_add_offset (le_set_src e src) 40))
      | r => r
      end in
    let '(exts, payload_ip_number, payload) := x in
    Ok (mkIpv6Slice header exts
          (mkIpPayload payload_ip_number (x6_fragmented exts) src payload)).

  Definition ipv6_from_slice (s : slice) : res ipv6_slice :=
    let* header := Ipv6HeaderSlice.from_slice s in
    ipv6_finish s header.

  (* IpSlice::from_slice: ihl * 4 (the IPv6 arm: see ipv6_finish) *)
  Definition ip_from_slice (s : slice) : res ip_slice :=
    if s_len s =? 0 then lerr 1 (s_len s) LsSlice LyIpHeader
    else
      let* first_byte := rdU s 0 in
      let ver := N.shiftr first_byte 4 in
      if ver =? 4 then
        let ihl := N.land first_byte 15 in
        if ihl <? 5 then Err (EContent (CeIpIhl ihl))
        else
          let* header_len := mulC M ihl 4 in
          if s_len s <? header_len then lerr header_len (s_len s) LsSlice LyIpv4Header
          else
            let* header := subU s 0 header_len in
            let* total_len := Ipv4HeaderSlice.total_len header in
            if total_len <? header_len then
              lerr header_len total_len LsIpv4HeaderTotalLen LyIpv4Packet
            else if s_len s <? total_len then
              lerr total_len (s_len s) LsSlice LyIpv4Packet
            else
              let* n := subN total_len header_len in
              let* header_payload := subU s header_len n in
              let* v := Ipv4Slice.finish header header_payload in
              Ok (IpV4 v)
      else if ver =? 6 then
        if s_len s <? 40 then lerr 40 (s_len s) LsSlice LyIpv6Header
        else
          let* header := subU s 0 40 in
          let* v := ipv6_finish s header in
          Ok (IpV6 v)
      else Err (EContent (CeIpUnsupportedVersion ver)).

  (* 2 ^ 17, written out for lia *)
  Hypothesis HM : 131072 <= M.

  Lemma macsec_header_chk s : macsec_header_from_slice s = Macsec.header_from_slice s.
  Proof.
    unfold macsec_header_from_slice, Macsec.header_from_slice. cbv zeta.
    destruct (s_len s <? 6); [reflexivity|].
    destruct (rdU s 0) as [t|e|b]; cbn [bind]; try reflexivity.
    destruct (Macsec.bit t 128); [reflexivity|].
    match goal with |- bind ?X _ = bind ?X _ => destruct X as [u|e|b]; cbn [bind]; try reflexivity end.
    rewrite addC_ok by (destruct (N.land t 12 =? 0); lia). cbn [bind].
    rewrite addC_ok by (destruct (N.land t 12 =? 0), (Macsec.bit t 32); lia). reflexivity.
  Qed.

  Lemma macsec_chk s : bytes_ok (snd s) -> macsec_from_slice s = Macsec.from_slice s.
  Proof.
    intros Hok. unfold macsec_from_slice, Macsec.from_slice. rewrite macsec_header_chk.
    destruct (Macsec.header_from_slice s) as [h|e|b] eqn:Eh; cbn [bind]; try reflexivity.
    destruct (Macsec.expected_payload_len h) as [[req|]|e|b] eqn:Ee; cbn [bind]; try reflexivity.
    apply macsech_wf in Eh. destruct Eh as ((t & E0 & L) & _).
    assert (Lh : s_len h <= 16) by (destruct (N.land t 12 =? 0), (bitset t 32); lia).
    assert (Lr : req < 64).
    { unfold Macsec.expected_payload_len, Macsec.short_len, Macsec.tci_an_raw in Ee.
      destruct (rdU h 1) as [b1|?|?]; cbn [bind] in Ee; try discriminate.
      rewrite E0 in Ee. cbn [bind] in Ee.
      assert (B : N.land b1 63 < 64).
      { rewrite (N.land_ones b1 6 : N.land b1 63 = b1 mod 2 ^ 6). apply N.mod_lt. discriminate. }
      destruct (0 <? N.land b1 63); [|discriminate].
      destruct (negb (N.land t 12 =? 0)); [injection Ee as <-; exact B|].
      destruct (N.land b1 63 <? 2); [discriminate|]. injection Ee as <-. lia. }
    rewrite addC_ok by lia. reflexivity.
  Qed.

  Lemma arp_chk s : bytes_ok (snd s) -> arp_from_slice s = ArpPacketSlice.from_slice s.
  Proof.
    intros Hok. unfold arp_from_slice, ArpPacketSlice.from_slice. cbv zeta.
    destruct (s_len s <? 8); [reflexivity|].
    destruct (rdU s 4) as [hw|e|b] eqn:E4; cbn [bind]; try reflexivity.
    destruct (rdU s 5) as [pr|e|b] eqn:E5; cbn [bind]; try reflexivity.
    pose proof (rdU_byte s 4 hw Hok E4). pose proof (rdU_byte s 5 pr Hok E5).
    rewrite (mulC_ok M hw 2) by lia. cbn [bind]. rewrite addC_ok by lia. cbn [bind].
    rewrite (mulC_ok M pr 2) by lia. cbn [bind]. rewrite addC_ok by lia. reflexivity.
  Qed.

  Lemma ipv4_header_chk s : ipv4_header_from_slice s = Ipv4HeaderSlice.from_slice s.
  Proof.
    unfold ipv4_header_from_slice, Ipv4HeaderSlice.from_slice. cbv zeta.
    destruct (s_len s <? 20); [reflexivity|].
    destruct (rdU s 0) as [v|e|b]; cbn [bind]; try reflexivity.
    destruct (negb (N.shiftr v 4 =? 4)); [reflexivity|]. destruct (N.land v 15 <? 5); [reflexivity|].
    pose proof (land15_le v).
    rewrite mulC_ok by lia. reflexivity.
  Qed.

  Lemma auth_chk s : bytes_ok (snd s) -> auth_from_slice s = IpAuthHeaderSlice.from_slice s.
  Proof.
    intros Hok. unfold auth_from_slice, IpAuthHeaderSlice.from_slice. cbv zeta.
    destruct (s_len s <? 12); [reflexivity|].
    destruct (rdU s 1) as [p|e|b] eqn:E1; cbn [bind]; try reflexivity.
    destruct (p <? 1); [reflexivity|].
    pose proof (rdU_byte s 1 p Hok E1).
    rewrite addC_ok by lia. cbn [bind]. rewrite mulC_ok by lia. reflexivity.
  Qed.

  Lemma raw_chk s : bytes_ok (snd s) -> raw_from_slice s = Ipv6RawExtHeaderSlice.from_slice s.
  Proof.
    intros Hok. unfold raw_from_slice, Ipv6RawExtHeaderSlice.from_slice. cbv zeta.
    destruct (s_len s <? 8); [reflexivity|].
    destruct (rd (snd s) 1) as [b|] eqn:E1; cbn [bind]; [|reflexivity].
    assert (B : b < 256) by (eapply rd_ok; eauto).
    rewrite addC_ok by lia. cbn [bind]. rewrite mulC_ok by lia. reflexivity.
  Qed.

  Lemma ipv6_finish_chk s h : bytes_ok (snd h) -> ipv6_finish s h = Ipv6Slice.finish s h.
  Proof.
    intros Hok. unfold ipv6_finish, Ipv6Slice.finish.
    destruct (Ipv6HeaderSlice.payload_length h) as [pl|e|b] eqn:Epl; cbn [bind]; try reflexivity.
    destruct ((0 =? pl) && (40 <? s_len s)); [reflexivity|].
    pose proof (rd16_u16 h 4 pl Hok Epl) as B.
    rewrite addC_ok by lia. reflexivity.
  Qed.

  Lemma ipv6_chk s : bytes_ok (snd s) -> ipv6_from_slice s = Ipv6Slice.from_slice s.
  Proof.
    intros Hok. unfold ipv6_from_slice, Ipv6Slice.from_slice.
    destruct (Ipv6HeaderSlice.from_slice s) as [h|e|b] eqn:Eh; cbn [bind]; try reflexivity.
    apply ipv6_finish_chk. apply ipv6h_wf in Eh. destruct Eh as (_ & S).
    exact (sub_of_bytes_ok _ _ S Hok).
  Qed.

  Lemma ip_chk s : bytes_ok (snd s) -> ip_from_slice s = IpSlice.from_slice s.
  Proof.
    intros Hok. unfold ip_from_slice, IpSlice.from_slice. cbv zeta.
    destruct (s_len s =? 0); [reflexivity|].
    destruct (rdU s 0) as [fb|e|b]; cbn [bind]; try reflexivity.
    destruct (N.shiftr fb 4 =? 4).
    - destruct (N.land fb 15 <? 5); [reflexivity|].
      pose proof (land15_le fb).
      rewrite mulC_ok by lia. reflexivity.
    - destruct (N.shiftr fb 4 =? 6); [|reflexivity]. destruct (s_len s <? 40); [reflexivity|].
      destruct (subU s 0 40) as [h|e|b] eqn:Eh; cbn [bind]; try reflexivity.
      rewrite ipv6_finish_chk; [reflexivity|]. exact (subU_bytes_ok _ _ _ _ Eh Hok).
  Qed.
End Checked.

(* for every usize of at least 17 bits and every slice of bytes: no `+` / `*` of the
   constructors overflows -- the checked constructor is the constructor *)
Theorem no_usize_overflow : forall M s, 2 ^ 17 <= M -> bytes_ok (snd s) ->
  macsec_header_from_slice M s = Macsec.header_from_slice s /\
  macsec_from_slice M s = Macsec.from_slice s /\
  arp_from_slice M s = ArpPacketSlice.from_slice s /\
  ipv4_header_from_slice M s = Ipv4HeaderSlice.from_slice s /\
  auth_from_slice M s = IpAuthHeaderSlice.from_slice s /\
  raw_from_slice M s = Ipv6RawExtHeaderSlice.from_slice s /\
  ipv6_from_slice M s = Ipv6Slice.from_slice s /\
  ip_from_slice M s = IpSlice.from_slice s.
Proof.
  intros M s HM Hok.
  split; [now apply macsec_header_chk|]. split; [now apply macsec_chk|].
  split; [now apply arp_chk|]. split; [now apply ipv4_header_chk|].
  split; [now apply auth_chk|]. split; [now apply raw_chk|].
  split; [now apply ipv6_chk|now apply ip_chk].
Qed.

(* hence the checked constructors never report an overflow (nor any other Bug) *)
Corollary no_usize_overflow_32 : forall s b, bytes_ok (snd s) ->
  macsec_header_from_slice (2 ^ 32) s <> Bug b /\ macsec_from_slice (2 ^ 32) s <> Bug b /\
  arp_from_slice (2 ^ 32) s <> Bug b /\ ipv4_header_from_slice (2 ^ 32) s <> Bug b /\
  auth_from_slice (2 ^ 32) s <> Bug b /\ raw_from_slice (2 ^ 32) s <> Bug b /\
  ipv6_from_slice (2 ^ 32) s <> Bug b /\ ip_from_slice (2 ^ 32) s <> Bug b.
Proof.
  intros s b Hok.
  assert (HM : 2 ^ 17 <= 2 ^ 32) by (vm_compute; discriminate).
  destruct (no_usize_overflow (2 ^ 32) s HM Hok) as (E1 & E2 & E3 & E4 & E5 & E6 & E7 & E8).
  rewrite E1, E2, E3, E4, E5, E6, E7, E8.
  pose proof (CtorsTotal.single_layer_ctor_no_bug s) as H.
  repeat match type of H with _ /\ _ => let A := fresh "A" in destruct H as (A & H) end.
  repeat split; auto.
Qed.

(* the bound is needed: with a 16-bit usize an IPv6 payload length of 65535 would overflow *)
Example overflow_reachable_16 :
  ipv6_finish (2 ^ 16) (mk_slice (repeat 0 41%nat))
    (mk_slice ([96;0;0;0; 255;255; 59; 64] ++ repeat 0 32%nat)) = Bug SITE_OVERFLOW.
Proof. vm_compute. reflexivity. Qed.
