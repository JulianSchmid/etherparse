(* Parse/Types.v -- vocabulary of the packet parsing models: slices as
   (pointer offset, contents), windows, length sources, layers, errors, and the
   result monad with an explicit "must be unreachable" outcome. *)
From EP Require Import Base.Bytes.

(* ---- Rust slices ------------------------------------------------------- *)
(* A `&[u8]` is modelled as the offset of its first byte from the start of the
   buffer the caller passed in (its pointer) plus its contents.  Sub-slicing
   adds to the pointer; `offset_from` is the difference of two pointers. *)
Definition slice := (N * bytes)%type.
Definition s_off (s : slice) : N := fst s.
Definition s_bytes (s : slice) : bytes := snd s.
Definition s_len (s : slice) : N := len (snd s).
Definition mk_slice (bs : bytes) : slice := (0, bs).

(* a window of the caller's buffer: what C01/C03/C07 observe *)
Definition window := (N * N)%type.  (* offset, length *)
Definition win_of (s : slice) : window := (s_off s, s_len s).

(* ---- enums of the crate (tags = what harness and runner print) --------- *)
Inductive len_source :=
| LsSlice | LsIpv4HeaderTotalLen | LsIpv6HeaderPayloadLen | LsUdpHeaderLen
| LsTcpHeaderLen | LsArpAddrLengths | LsMacsecShortLength.

Inductive layer :=
| LyLinuxSllHeader | LyEthernet2Header | LyEtherPayload | LyVlanHeader
| LyMacsecHeader | LyMacsecPacket | LyIpHeader | LyIpv4Header | LyIpv4Packet
| LyIpAuthHeader | LyIpv6Header | LyIpv6Packet | LyIpv6ExtHeader
| LyIpv6HopByHopHeader | LyIpv6DestOptionsHeader | LyIpv6RouteHeader
| LyIpv6FragHeader | LyUdpHeader | LyUdpPayload | LyTcpHeader | LyIcmpv4
| LyIcmpv4Timestamp | LyIcmpv4TimestampReply | LyIcmpv6 | LyArp.

Record len_error := mkLenError {
  le_required : N;
  le_len : N;
  le_src : len_source;
  le_layer : layer;
  le_off : N;
}.

Definition le_add_offset (e : len_error) (o : N) : len_error :=
  mkLenError (le_required e) (le_len e) (le_src e) (le_layer e) (le_off e + o).

Definition le_set_src (e : len_error) (s : len_source) : len_error :=
  mkLenError (le_required e) (le_len e) s (le_layer e) (le_off e).

(* content errors: the variant of err::packet::SliceError (and friends) plus the
   offending value it carries *)
Inductive content_error :=
| CeLinuxSllPacketType (v : N)         (* UnsupportedPacketTypeField *)
| CeLinuxSllArpHardwareId (v : N)      (* UnsupportedArpHardwareId *)
| CeMacsecVersion                      (* UnexpectedVersion *)
| CeMacsecUnmodifiedShortLen           (* InvalidUnmodifiedShortLen *)
| CeIpUnsupportedVersion (v : N)       (* ip::HeaderError::UnsupportedIpVersion *)
| CeIpIhl (v : N)                      (* ip::HeaderError::Ipv4HeaderLengthSmallerThanHeader *)
| CeIpv4Version (v : N)                (* ipv4::HeaderError::UnexpectedVersion *)
| CeIpv4Ihl (v : N)                    (* ipv4::HeaderError::HeaderLengthSmallerThanHeader *)
| CeIpv6Version (v : N)                (* ipv6::HeaderError::UnexpectedVersion *)
| CeAuthZeroPayloadLen                 (* SliceError::Ipv4Exts(ip_auth::HeaderError::ZeroPayloadLen) *)
| CeIpv6AuthZeroPayloadLen             (* SliceError::Ipv6Exts(IpAuth(ZeroPayloadLen)) *)
| CeHopByHopNotAtStart                 (* ipv6_exts::HeaderError::HopByHopNotAtStart *)
| CeTcpDataOffset (v : N).             (* tcp::HeaderError::DataOffsetTooSmall *)

Inductive slice_error :=
| ELen (e : len_error)
| EContent (c : content_error).

(* ---- result monad ------------------------------------------------------ *)
(* Bug = an out-of-bounds unchecked read / from_raw_parts, a failing unwrap,
   an unreachable_unchecked, a usize underflow, or fuel exhaustion.  The
   theorems of C01/C02 state that no entry point ever returns Bug. *)
Inductive res (A : Type) :=
| Ok (a : A)
| Err (e : slice_error)
| Bug (site : N).
Arguments Ok {A} a.
Arguments Err {A} e.
Arguments Bug {A} site.

Definition bind {A B} (r : res A) (f : A -> res B) : res B :=
  match r with
  | Ok a => f a
  | Err e => Err e
  | Bug s => Bug s
  end.

Notation "'let*' x ':=' c1 'in' c2" := (bind c1 (fun x => c2))
  (at level 61, x pattern, c1 at next level, right associativity).

Definition map_len_err {A} (f : len_error -> len_error) (r : res A) : res A :=
  match r with
  | Err (ELen e) => Err (ELen (f e))
  | _ => r
  end.

(* site numbers of the unchecked primitives *)
Definition SITE_RD : N := 1.       (* get_unchecked / *ptr.add(i) *)
Definition SITE_SUB : N := 2.      (* from_raw_parts *)
Definition SITE_SUBTRACT : N := 3. (* usize subtraction *)
Definition SITE_FUEL : N := 4.     (* loop bound of the model exhausted *)
Definition SITE_UNWRAP : N := 5.   (* unwrap / expect / unwrap_unchecked *)
Definition SITE_PUSH : N := 6.     (* ArrayVec::push_unchecked on a full vector *)
Definition SITE_INDEX : N := 7.    (* checked indexing slice[i] / slice[a..b] that would panic *)

(* *slice.get_unchecked(i) *)
Definition rdU (s : slice) (i : N) : res N :=
  match rd (snd s) i with
  | Some v => Ok v
  | None => Bug SITE_RD
  end.

(* core::slice::from_raw_parts(s.as_ptr().add(k), n) *)
Definition subU (s : slice) (k n : N) : res slice :=
  if k + n <=? s_len s then Ok (fst s + k, take n (drop k (snd s)))
  else Bug SITE_SUB.

(* a - b on usize *)
Definition subN (a b : N) : res N :=
  if b <=? a then Ok (a - b) else Bug SITE_SUBTRACT.

(* get_unchecked_be_u16(ptr.add(i)) *)
Definition rd16 (s : slice) (i : N) : res N :=
  let* a := rdU s i in
  let* b := rdU s (i + 1) in
  Ok (be16 a b).

Definition rd32 (s : slice) (i : N) : res N :=
  let* a := rdU s i in
  let* b := rdU s (i + 1) in
  let* c := rdU s (i + 2) in
  let* d := rdU s (i + 3) in
  Ok (be32 a b c d).

(* ---- protocol numbers used for dispatch (RFC values; Gen/Consts.v carries
   the values extracted from the source and Parse/ConstsOk.v proves them equal) *)
Definition ET_IPV4 : N := 2048.        (* 0x0800 *)
Definition ET_ARP : N := 2054.         (* 0x0806 *)
Definition ET_VLAN : N := 33024.       (* 0x8100 *)
Definition ET_IPV6 : N := 34525.       (* 0x86dd *)
Definition ET_QINQ : N := 34984.       (* 0x88a8 provider bridging *)
Definition ET_MACSEC : N := 35045.     (* 0x88e5 *)
Definition ET_VLAN_DOUBLE : N := 37120. (* 0x9100 *)

Definition IPN_HOP_BY_HOP : N := 0.
Definition IPN_ICMP : N := 1.
Definition IPN_TCP : N := 6.
Definition IPN_UDP : N := 17.
Definition IPN_ROUTE : N := 43.
Definition IPN_FRAG : N := 44.
Definition IPN_AUTH : N := 51.
Definition IPN_ICMPV6 : N := 58.
Definition IPN_DEST_OPTIONS : N := 60.
