(* Parse/HdrLaxC05.v -- C05 (a) and (b) for the lax header-struct family LaxPacketHeaders,
   derived by composition:
     strict PacketHeaders  = (C04, HdrProofs3)  strict slicing cut at a refilled extension header
     strict slicing        -> (C05 (a) / (b), LaxProofs / LaxPrefix)  lax slicing
     lax slicing (cut)     = (C04 lax half, HdrLaxProofs3)  LaxPacketHeaders
   Both compositions go through the UNCUT slicing results, so they are stated outside the
   documented struct-decoding exception: `stopped_at_ext` / `lax_stopped_at_ext` = false. *)
From Coq Require Import ZArith Lia ZifyN ZifyBool.
From EP Require Import Base.Bytes Parse.Types Parse.Slices Parse.Cursor Parse.View
  Parse.WireSpec Parse.Repr Parse.StrictProofs Parse.LaxSlices Parse.LaxCursor Parse.LaxView
  Parse.LaxProofs Parse.LaxFacts Parse.LaxWire Parse.LaxWireProofs Parse.LaxPrefix Parse.LaxHdrFacts
  Parse.HdrModel Parse.HdrView Parse.HdrCut Parse.HdrProofs Parse.HdrProofs2 Parse.HdrProofs3
  Parse.HdrLaxModel Parse.HdrLaxView Parse.HdrLaxProofs Parse.HdrLaxCut Parse.HdrLaxCutProofs
  Parse.HdrLaxProofs2 Parse.HdrLaxProofs3.

Local Open Scope N_scope.

(* forgetting what only the lax view carries *)
Definition hvlink_win (l : hvlink) : window :=
  match l with HvlEthernet2 w => w | HvlLinuxSll w => w end.

Definition strip_inc (p : lhvpayload) : hvpayload :=
  match p with
  | LHvpEmpty => HvpEmpty
  | LHvpEther e => HvpEther (strictify_ep e)
  | LHvpMacsecMod _ w => HvpMacsecMod w
  | LHvpIp p => HvpIp (strictify_ipp p)
  | LHvpUdp _ w => HvpUdp w
  | LHvpTcp _ w => HvpTcp w
  | LHvpIcmpv4 _ w => HvpIcmpv4 w
  | LHvpIcmpv6 _ w => HvpIcmpv6 w
  | LHvpLinuxSll _ _ => HvpEmpty
  end.

Definition payload_inc (p : lhvpayload) : bool :=
  match p with
  | LHvpEmpty => false
  | LHvpEther e => lvep_incomplete e
  | LHvpMacsecMod i _ => i
  | LHvpIp p => lvip_incomplete p
  | LHvpUdp i _ | LHvpTcp i _ | LHvpIcmpv4 i _ | LHvpIcmpv6 i _ => i
  | LHvpLinuxSll _ _ => false
  end.

(* equal; for an ether payload: same ether type and window (the length source of the last
   ether payload behind MACsec headers is observation (D), not compared here) *)
Definition same_payload (a b : hvpayload) : Prop :=
  a = b \/ exists e e', a = HvpEther e /\ b = HvpEther e' /\ vep_type e = vep_type e' /\ vep_win e = vep_win e'.

Lemma same_payload_ether e e' :
  vep_type e = vep_type e' -> vep_win e = vep_win e' -> same_payload (HvpEther e) (HvpEther e').
Proof. intros Et Ew. right. exists e, e'. auto. Qed.

(* the view of an embedded strict slicing result *)
Lemma last_map_some {A B} (f : A -> B) (l : list A) :
  last (map Some (map f l)) None = option_map f (last (map Some l) None).
Proof.
  induction l as [|x l IH]; [reflexivity|].
  destruct l as [|y l]; [reflexivity|]. cbn [map last] in *. exact IH.
Qed.

Lemma lconv_of_strict r v0 : conv r = Ok v0 ->
  exists v', lconv (lax_of_packet r) = Ok v' /\
    option_map hvlink_win (lhv_link v') = hv_link v0 /\ lhv_exts v' = hv_exts v0 /\
    lhv_net v' = hv_net v0 /\ lhv_tr v' = hv_tr v0 /\
    same_payload (strip_inc (lhv_payload v')) (hv_payload v0) /\
    payload_inc (lhv_payload v') = false /\ lhv_stop v' = None.
Proof.
  destruct r as [l x n t]. unfold conv, lconv, lax_of_packet.
  cbn [sp_link sp_exts sp_net sp_transport lsp_link lsp_exts lsp_net lsp_transport lsp_stop_err].
  assert (Einc : match option_map lax_of_net n with
                 | Some n0 => match lnp n0 with Some ip => lipp_incomplete ip | None => false end
                 | None => false
                 end = false) by (destruct n as [[v|v|a]|]; reflexivity).
  rewrite Einc.
  assert (Elink : option_map hvlink_win (match l with Some l0 => lconv_link l0 | None => None end) =
                  match l with Some l0 => conv_link l0 | None => None end)
    by (destruct l as [[s|h w|e]|]; reflexivity).
  assert (Eexts : map lconv_ext (map lax_of_ext x) = map conv_ext x).
  { rewrite map_map. apply map_ext. intros [s|m]; reflexivity. }
  assert (Enet : option_map lconv_net (option_map lax_of_net n) = option_map conv_net n)
    by (destruct n as [[v|v|a]|]; reflexivity).
  assert (Fin : forall (tr : option hvtr) (pl : lhvpayload) (pl0 : hvpayload),
            same_payload (strip_inc pl) pl0 -> payload_inc pl = false ->
            Ok (mkHv (match l with Some l0 => conv_link l0 | None => None end) (map conv_ext x)
                     (option_map conv_net n) tr pl0) = Ok v0 ->
            exists v', Ok (mkLHv (match l with Some l0 => lconv_link l0 | None => None end)
                              (map lconv_ext (map lax_of_ext x)) (option_map lconv_net (option_map lax_of_net n))
                              tr pl None) = Ok v' /\
              option_map hvlink_win (lhv_link v') = hv_link v0 /\ lhv_exts v' = hv_exts v0 /\
              lhv_net v' = hv_net v0 /\ lhv_tr v' = hv_tr v0 /\
              same_payload (strip_inc (lhv_payload v')) (hv_payload v0) /\
              payload_inc (lhv_payload v') = false /\ lhv_stop v' = None).
  { intros tr pl pl0 Hp Hi H. injection H as <-. eexists. split; [reflexivity|].
    cbn [lhv_link lhv_exts lhv_net lhv_tr lhv_payload lhv_stop hv_link hv_exts hv_net hv_tr hv_payload].
    rewrite Elink, Eexts, Enet. repeat split; assumption. }
  destruct t as [ts|].
  - destruct ts as [s|hl s|s|s]; cbn [conv_tr lconv_tr bind fst snd].
    + refine (Fin _ _ _ _ _); [left; reflexivity|reflexivity].
    + refine (Fin _ _ _ _ _); [left; reflexivity|reflexivity].
    + destruct (Icmpv4Acc.header_len s) as [hl|e|b]; cbn [bind fst snd]; try discriminate.
      refine (Fin _ _ _ _ _); [left; reflexivity|reflexivity].
    + refine (Fin _ _ _ _ _); [left; reflexivity|reflexivity].
  - destruct n as [[v|v|a]|]; cbn [option_map lax_of_net bind fst snd].
    + refine (Fin _ _ _ _ _); [left; reflexivity|reflexivity].
    + refine (Fin _ _ _ _ _); [left; reflexivity|reflexivity].
    + refine (Fin _ _ _ _ _); [left; reflexivity|reflexivity].
    + (* the last ether payload *)
      unfold conv_ether_payload, lconv_ether_payload.
      cbn [sp_exts sp_link lsp_exts lsp_link]. rewrite last_map_some.
      destruct (last (map Some x) None) as [[s|m]|]; cbn [option_map lax_of_ext].
      * destruct (exts_src x LsSlice) as [src|e|b]; cbn [bind]; try discriminate.
        destruct (SingleVlanSlice.payload s) as [e|e0|b]; cbn [bind fst snd]; try discriminate.
        refine (Fin _ _ _ _ _); [now apply same_payload_ether|reflexivity].
      * unfold lax_of_macsec. cbn [lms_payload]. destruct (ms_payload m) as [e|s].
        -- destruct (exts_src x LsSlice) as [src|e0|b]; cbn [bind fst snd]; try discriminate.
           refine (Fin _ _ _ _ _); [now apply same_payload_ether|reflexivity].
        -- cbn [bind fst snd]. refine (Fin _ _ _ _ _); [left; reflexivity|reflexivity].
      * destruct l as [[s|h w|e]|]; cbn [bind fst snd].
        -- destruct (Ethernet2Slice.payload s) as [e|e0|b]; cbn [bind fst snd]; try discriminate.
           refine (Fin _ _ _ _ _); [now apply same_payload_ether|reflexivity].
        -- refine (Fin _ _ _ _ _); [left; reflexivity|reflexivity].
        -- refine (Fin _ _ _ _ _); [now apply same_payload_ether|reflexivity].
        -- refine (Fin _ _ _ _ _); [left; reflexivity|reflexivity].
Qed.

(* the LaxPacketHeaders result seen against a strictly accepted PacketHeaders result hp *)
Definition hdr_same (hp : hpacket) (lh : res lhpacket) : Prop :=
  exists p v v0, lh = Ok p /\ lhview_of p = Ok v /\ hview_of hp = Ok v0 /\
    option_map hvlink_win (lhv_link v) = hv_link v0 /\ lhv_exts v = hv_exts v0 /\
    lhv_net v = hv_net v0 /\ lhv_tr v = hv_tr v0 /\
    same_payload (strip_inc (lhv_payload v)) (hv_payload v0) /\
    payload_inc (lhv_payload v) = false /\ lhv_stop v = None.

Lemma hview_of_no_err p : no_err (hview_of p).
Proof.
  unfold hview_of, hview_net, Ipv6HeaderSlice.next_header, Ipv6Extensions.is_fragmenting_payload,
    Ipv6FragmentHeaderSlice.is_fragmenting_payload, Ipv6FragmentHeaderSlice.more_fragments,
    Ipv6FragmentHeaderSlice.fragment_offset.
  ne.
Qed.

Lemma same_payload_carry sp pl pl0 :
  same_payload (strip_inc pl) pl0 -> same_payload (strip_inc (carry_src sp pl)) pl0.
Proof.
  destruct pl; cbn [carry_src strip_inc]; auto.
  intros [<-|(e1 & e2 & E1 & -> & Et & Ew)]; [now apply same_payload_ether|].
  injection E1 as <-. now apply same_payload_ether.
Qed.

Lemma payload_inc_carry sp pl : payload_inc (carry_src sp pl) = payload_inc pl.
Proof. destruct pl; reflexivity. Qed.

Lemma hagree_nobug h c b : hagree h c -> c <> Bug b.
Proof. intros (A1 & A2) ->. apply (A2 b). now rewrite A1. Qed.

Lemma lhagree_nobug_s f h s b : lhagree f h s -> s <> Bug b.
Proof. unfold lhagree. intros A ->. destruct h; contradiction. Qed.

(* struct = cut slicing on both sides; cut slicing = plain slicing where it does not end in Bug
   (it does not: it agrees with a struct result); plain lax slicing extends plain strict slicing *)
Lemma hdr_extends_core (hs : res hpacket) (cs ss : res sliced_packet) (lh : res lhpacket)
  (cl ll : res lax_sliced_packet) :
  hagree hs cs -> lhagree true lh cl ->
  ((forall b, cs <> Bug b) -> cs = ss) -> (forall r, ss = Ok r -> ll = Ok (lax_of_packet r)) ->
  ((forall b, cl <> Bug b) -> cl = ll) ->
  forall hp, hs = Ok hp -> hdr_same hp lh.
Proof.
  intros A L Hc Hext Hl.
  pose proof (Hc (fun b => hagree_nobug _ _ b A)) as Ec.
  pose proof (Hl (fun b => lhagree_nobug_s _ _ _ b L)) as El.
  destruct A as (A1 & A2). subst cs cl. intros hp ->.
  cbn [hvres_of_h] in A1, A2.
  pose proof (hview_of_no_err hp) as Ne.
  destruct (hview_of hp) as [v0|e|b] eqn:Ev0; [|now destruct (Ne e)|now destruct (A2 b)].
  destruct ss as [r|e|b]; cbn [hvres_of_s] in A1; try discriminate.
  destruct (conv r) as [v0'|e|b] eqn:Ec; try discriminate. injection A1 as <-.
  rewrite (Hext r eq_refl) in L. unfold lhagree in L.
  destruct lh as [p|e|b]; try contradiction.
  destruct L as (v & v' & Hv & Hc' & R1 & R2 & R3 & R4 & R5 & R6).
  destruct (lconv_of_strict r v0 Ec) as (w & Hw & W1 & W2 & W3 & W4 & W5 & W6 & W7).
  rewrite Hw in Hc'. injection Hc' as <-.
  exists p, v, v0. split; [reflexivity|]. split; [exact Hv|]. split; [exact Ev0|].
  rewrite R1, R2, R3, R4, R5. repeat (split; [assumption|]).
  split; [now apply same_payload_carry|]. split; [now rewrite payload_inc_carry|].
  rewrite W7 in R6. unfold stop_rel in R6. destruct (lhv_stop v) as [[eh ly]|]; [contradiction|reflexivity].
Qed.

(* (a) for LaxPacketHeaders: whenever strict PacketHeaders accepts, LaxPacketHeaders returns the same
   link / link extension / network / transport header windows and the same payload (kind, numbers,
   window; length source for IP payloads), no stop error, payload not incomplete -- outside the
   documented exception on both sides (neither the strict nor the lax slicing cut at a refilled
   extension header stopped) *)
Theorem hdr_lax_extends_strict bs et : bytes_ok bs ->
  (forall hp, PacketHeaders.from_ethernet_slice bs = Ok hp ->
     stopped_at_ext (Cut.from_ethernet true bs) = false ->
     lax_stopped_at_ext (LaxCut.from_ethernet true bs) = false ->
     hdr_same hp (LaxPacketHeaders.from_ethernet bs)) /\
  (forall hp, PacketHeaders.from_ether_type et bs = Ok hp ->
     stopped_at_ext (Cut.from_ether_type true et bs) = false ->
     lax_stopped_at_ext (LaxCut.from_ether_type true et bs) = false ->
     hdr_same hp (LaxPacketHeaders.from_ether_type et bs)) /\
  (forall hp, PacketHeaders.from_ip_slice bs = Ok hp ->
     stopped_at_ext (Cut.from_ip true bs) = false ->
     lax_stopped_at_ext (LaxCut.from_ip true bs) = false ->
     hdr_same hp (LaxPacketHeaders.from_ip bs)).
Proof.
  intros Hok. split; [|split]; intros hp Hhp S1 S2.
  - apply (hdr_extends_core _ _ (SlicedPacket.from_ethernet bs) _ _ (LaxSlicedPacket.from_ethernet bs)
             (hdr_agree_ethernet bs Hok) (lax_hdr_agree_ethernet bs Hok));
      [ exact (cut_only_when_stopped_ethernet bs S1) | intros r; apply from_ethernet_extends
      | exact (lcut_only_when_stopped_ethernet bs S2) | exact Hhp ].
  - apply (hdr_extends_core _ _ (SlicedPacket.from_ether_type et bs) _ _ (LaxSlicedPacket.from_ether_type et bs)
             (hdr_agree_ether_type et bs Hok) (lax_hdr_agree_ether_type et bs Hok));
      [ exact (cut_only_when_stopped_ether_type et bs S1) | intros r; apply from_ether_type_extends
      | exact (lcut_only_when_stopped_ether_type et bs S2) | exact Hhp ].
  - assert (Hf : F11 bs = false).
    { destruct (F11 bs) eqn:Hf; [|reflexivity]. destruct (hdr_f11_both_err bs Hf) as ((e & E) & _). congruence. }
    apply (hdr_extends_core _ _ (SlicedPacket.from_ip bs) _ _ (LaxSlicedPacket.from_ip bs)
             (hdr_agree_ip bs Hok Hf) (lax_hdr_agree_ip bs Hok Hf));
      [ exact (cut_only_when_stopped_ip bs S1) | intros r; apply from_ip_extends
      | exact (lcut_only_when_stopped_ip bs S2) | exact Hhp ].
Qed.

(* header windows of the layers of a strict observer view *)
Definition ext_hdr (x : vlink_ext) : hvext :=
  match x with VVlan w => HvVlan (fst w, 4) | VMacsec h _ => HvMacsec h end.
Definition net_hdr (n : vnet) : hvnet :=
  match n with
  | VIpv4 h a _ => HvIpv4 h a
  | VIpv6 h f fr x _ => HvIpv6 h f fr x
  | VArp w => HvArp w
  end.

(* every layer of q (the layers in front of the fault) is a layer of the LaxPacketHeaders view *)
Definition hdr_prefix (q : vpacket) (v : lhview) : Prop :=
  (exists rest, lhv_exts v = map ext_hdr (v_exts q) ++ rest) /\
  (v_net q = None \/ option_map net_hdr (v_net q) = lhv_net v) /\
  (v_transport q = None \/ lhv_tr v <> None).

(* the fault is a documented length fallback, or recorded as stop error (same record up to the
   length source, fitting layer tag), or -- F11 group -- a fault of the IP header recorded as a
   fault of the IP header (same offset outside the F11-like class) *)
Definition hdr_outcome (e : slice_error) (v : lhview) : Prop :=
  fallback e \/
  (exists e' ly, lhv_stop v = Some (e', ly) /\ lax_same e e' /\ tag_ok e' ly) \/
  (ip_hdr_class e /\
   exists e', lhv_stop v = Some (e', LyIpHeader) /\ ip_hdr_class e' /\
     (f11_stop (lhv_stop v) = false ->
      forall o o', err_off e = Some o -> err_off e' = Some o' -> o = o')).

Definition hdr_prefix_ok (bs : bytes) (strict : res sliced_packet) (pw : pres)
  (laxcut : res lax_sliced_packet) (lh : res lhpacket) : Prop :=
  forall e, strict = Err e -> lax_stopped_at_ext laxcut = false ->
  exists q e_ref p v,
    pw = PRej q e_ref /\ res_rel (VErr e) (VErr e_ref) /\ lh = Ok p /\ lhview_of p = Ok v /\
    (~ F10_class bs e_ref -> hdr_prefix q v /\ hdr_outcome e_ref v).

Lemma lconv_fields sp v' : lconv sp = Ok v' ->
  lhv_exts v' = map lconv_ext (lsp_exts sp) /\ lhv_net v' = option_map lconv_net (lsp_net sp) /\
  (lsp_transport sp <> None -> lhv_tr v' <> None) /\ lhv_stop v' = lsp_stop_err sp.
Proof.
  unfold lconv. destruct (lsp_transport sp) as [t|].
  - destruct (lconv_tr _ t) as [r|e|b]; cbn [bind]; try discriminate.
    intros H. injection H as <-. cbn. repeat split. intros _. discriminate.
  - destruct (match lsp_net sp with Some _ => _ | None => _ end) as [r|e|b]; cbn [bind]; try discriminate.
    intros H. injection H as <-. cbn. repeat split. intros H. now destruct H.
Qed.

Lemma lconv_ext_hdr x : lconv_ext x = ext_hdr (strictify_ext (lview_ext x)).
Proof. destruct x as [s|m]; [reflexivity|]. cbn. unfold lview_macsec. destruct (lms_payload m); reflexivity. Qed.

Lemma lconv_net_hdr n : lconv_net n = net_hdr (strictify_net (lview_net n)).
Proof. destruct n; reflexivity. Qed.

Lemma hdr_prefix_of q sp v v' :
  vprefix q (strictify (lview sp)) -> lconv sp = Ok v' ->
  lhv_exts v = lhv_exts v' -> lhv_net v = lhv_net v' -> lhv_tr v = lhv_tr v' -> hdr_prefix q v.
Proof.
  intros (_ & (rest & Hx) & Hn & Ht) Hc R2 R3 R4.
  destruct (lconv_fields sp v' Hc) as (F1 & F2 & F3 & _).
  unfold strictify, lview in Hx, Hn, Ht. cbn [v_exts v_net v_transport lv_exts lv_net lv_transport] in Hx, Hn, Ht.
  split; [|split].
  - exists (map ext_hdr rest). rewrite R2, F1, <- map_app, <- Hx, !map_map.
    apply map_ext. intros x. apply lconv_ext_hdr.
  - destruct Hn as [Hn|Hn]; [now left|right]. rewrite R3, F2, Hn.
    destruct (lsp_net sp); cbn [option_map]; [now rewrite lconv_net_hdr|reflexivity].
  - destruct Ht as [Ht|Ht]; [now left|].
    destruct (v_transport q) as [t|] eqn:Et; [right|now left].
    rewrite R4. apply F3. destruct (lsp_transport sp); [discriminate|discriminate].
Qed.

Lemma tag_ok_lerr lh ls ly : lerr_rel lh ls -> tag_ok (ELen ls) ly -> tag_ok (ELen lh) ly.
Proof. intros [->| ->]; [auto|]. destruct ls; exact (fun H => H). Qed.

Lemma lax_same_lerr e lh ls : lerr_rel lh ls -> lax_same e (ELen ls) -> lax_same e (ELen lh).
Proof.
  intros [->| ->]; [auto|]. destruct e as [a|c]; [|auto]. destruct ls as [r n s y o].
  unfold lax_same, le_set_src. cbn. intros (A & B & C & D & _). repeat split; auto.
Qed.

Lemma hdr_outcome_of e sp v v' :
  lax_outcome e (lview sp) -> lconv sp = Ok v' -> stop_rel true (lhv_stop v) (lhv_stop v') ->
  hdr_outcome e v.
Proof.
  intros O Hc R. destruct (lconv_fields sp v' Hc) as (_ & _ & _ & F4).
  rewrite F4 in R. unfold lview in O. unfold lax_outcome in O. cbn [lv_stop] in O.
  destruct O as [O|[(e' & ly & Es & Hs & Ht)|(Hi & e' & Es & Hi' & Ho)]]; [now left| |].
  - rewrite Es in R. unfold stop_rel in R.
    destruct (lhv_stop v) as [[eh lyh]|] eqn:Eh; [|contradiction].
    destruct R as (-> & [R|(_ & -> & R)]).
    + right. left. exists eh, ly. split; [exact Eh|].
      destruct eh as [lh|ch]; destruct e' as [ls|cs]; try contradiction.
      * split; [now apply (lax_same_lerr e lh ls)|now apply (tag_ok_lerr lh ls)].
      * subst ch. split; assumption.
    + (* an F11 pair behind a recorded IP-header fault *)
      right. right.
      pose proof R as (n & off & Hn & -> & [(i & _ & ->)|(hl & src & _ & ->)]).
      * split; [destruct e as [a|c]; cbn in Hs; [contradiction|subst c; exact I]|].
        eexists. split; [exact Eh|]. split; [cbn; auto|].
        intros Hf. exfalso. rewrite Eh in Hf. apply f11_pair_stop in R. exact (Bool.eq_true_false_abs _ R Hf).
      * split; [destruct e as [a|c]; cbn in Hs; [|contradiction]; destruct Hs as (_ & _ & Hl & _); cbn in *; auto|].
        eexists. split; [exact Eh|]. split; [cbn; auto|].
        intros Hf. exfalso. rewrite Eh in Hf. apply f11_pair_stop in R. exact (Bool.eq_true_false_abs _ R Hf).
  - rewrite Es in R. unfold stop_rel in R.
    destruct (lhv_stop v) as [[eh lyh]|] eqn:Eh; [|contradiction].
    destruct R as (-> & [R|(_ & _ & R)]); right; right; (split; [exact Hi|]).
    + exists eh. split; [exact Eh|].
      destruct eh as [lh|ch]; destruct e' as [ls|cs]; try contradiction.
      * destruct R as [->| ->]; [split; [exact Hi'|intros _; exact Ho]|].
        destruct ls as [r n s y o]. split; [exact Hi'|]. intros _. exact Ho.
      * subst ch. split; [exact Hi'|intros _; exact Ho].
    + pose proof R as (n & off & Hn & -> & _).
      eexists. split; [exact Eh|]. split; [cbn; auto|].
      intros Hf. exfalso. rewrite Eh in Hf. apply f11_pair_stop in R. exact (Bool.eq_true_false_abs _ R Hf).
Qed.

Lemma hdr_prefix_core bs strict pw (cl ll : res lax_sliced_packet) lh :
  prefix_ok bs strict pw ll -> lhagree true lh cl ->
  (lax_stopped_at_ext cl = false -> (forall b, cl <> Bug b) -> cl = ll) ->
  hdr_prefix_ok bs strict pw cl lh.
Proof.
  intros P L Hcut e He Hs. rewrite (Hcut Hs (fun b => lhagree_nobug_s _ _ _ b L)) in L.
  destruct (P e He) as (q & e_ref & r' & Pw & Rr & -> & Hrest).
  unfold lhagree in L. destruct lh as [p|e0|b]; try contradiction.
  destruct L as (v & v' & Hv & Hc & R1 & R2 & R3 & R4 & R5 & R6).
  exists q, e_ref, p, v. split; [exact Pw|]. split; [exact Rr|]. split; [reflexivity|]. split; [exact Hv|].
  intros Hf. destruct (Hrest Hf) as (Vp & Lo). split.
  - now apply (hdr_prefix_of q r' v v').
  - now apply (hdr_outcome_of e_ref r' v v').
Qed.

(* (b) for LaxPacketHeaders: strict slicing rejects behind the first header => the reference decoder
   rejects with (q, e_ref), LaxPacketHeaders returns Ok, and outside F10: every layer of q (link
   extensions and network header with their header windows; a transport layer) is in the result, and
   e_ref is a documented length fallback or recorded as stop error on a fitting layer (F11 group for
   faults of the IP header itself) -- outside the documented struct-decoding exception *)
Theorem hdr_lax_prefix bs et : bytes_ok bs ->
  (14 <= len bs ->
   hdr_prefix_ok bs (SlicedPacket.from_ethernet bs) (pwire_ethernet bs)
     (LaxCut.from_ethernet true bs) (LaxPacketHeaders.from_ethernet bs)) /\
  hdr_prefix_ok bs (SlicedPacket.from_ether_type et bs) (pwire_ether_type bs et)
    (LaxCut.from_ether_type true et bs) (LaxPacketHeaders.from_ether_type et bs) /\
  (ip_header_fault bs = None ->
   hdr_prefix_ok bs (SlicedPacket.from_ip bs) (pwire_from_ip bs)
     (LaxCut.from_ip true bs) (LaxPacketHeaders.from_ip bs)).
Proof.
  intros Hok. destruct (lax_prefix_packet bs et Hok) as (P1 & P2 & P3). split; [|split].
  - intros H14.
    exact (hdr_prefix_core _ _ _ _ _ _ (P1 H14) (lax_hdr_agree_ethernet bs Hok) (lcut_only_when_stopped_ethernet bs)).
  - exact (hdr_prefix_core _ _ _ _ _ _ P2 (lax_hdr_agree_ether_type et bs Hok)
             (lcut_only_when_stopped_ether_type et bs)).
  - intros Hnf.
    assert (Hf : F11 bs = false).
    { destruct (F11 bs) eqn:Hf; [|reflexivity].
      destruct (lax_hdr_f11_both_err bs Hf) as (e & e' & _ & _ & E & _).
      apply lax_from_ip_err_iff in E. congruence. }
    exact (hdr_prefix_core _ _ _ _ _ _ (P3 Hnf) (lax_hdr_agree_ip bs Hok Hf) (lcut_only_when_stopped_ip bs)).
Qed.
