(* Parse/HdrLaxProofs3.v -- assembly of the lax per-layer agreement lemmas (HdrLaxProofs.v,
   HdrLaxProofs2.v) over whole packets: LaxPacketHeaders::add_ip against the lax cursor's
   slice_ip, ARP, the VLAN / MACsec link-extension loop (induction on the remaining capacity
   of the ArrayVec, as HdrProofs3.loop_agree / LaxWireProofs.l_ether_eq), the three entry
   points of LaxPacketHeaders, never-Bug. *)
From Coq Require Import ZArith Lia ZifyN ZifyBool.
From EP Require Import Base.Bytes Parse.Types Parse.Slices Parse.Cursor Parse.View
  Parse.WireSpec Parse.Repr Parse.StrictProofs Parse.LaxSlices Parse.LaxCursor Parse.LaxView
  Parse.LaxProofs Parse.LaxFacts Parse.LaxWire Parse.LaxWireProofs
  Parse.HdrModel Parse.HdrView Parse.HdrCut Parse.HdrProofs Parse.HdrProofs2 Parse.HdrProofs3
  Parse.HdrLaxModel Parse.HdrLaxView Parse.HdrLaxProofs Parse.HdrLaxCut Parse.HdrLaxCutProofs
  Parse.HdrLaxProofs2.
Import LaxSlicedPacketCursor.

Local Open Scope N_scope.

Definition sh_stop (k : N) (e : stop_error) : stop_error := (shift k (fst e), snd e).

Lemma add_add l a b : le_add_offset (le_add_offset l a) b = le_add_offset l (b + a).
Proof. destruct l as [r n s y o]. unfold le_add_offset. cbn. f_equal. lia. Qed.

Lemma lerr_rel_fix l o k csrc :
  lerr_rel (le_add_offset (le_add_offset l o) k) (fix_len l (k + o) csrc).
Proof.
  destruct l as [r n s y o0]. unfold lerr_rel, fix_len, le_add_offset, le_set_src. cbn.
  destruct s; cbn; [right|left|left|left|left|left|left]; f_equal; lia.
Qed.

Lemma fix_len_shift l o k src : fix_len l (k + o) src = le_add_offset (fix_len l o src) k.
Proof.
  destruct l as [r n s y o0]. unfold fix_len, le_add_offset, le_set_src. cbn.
  destruct s; cbn; f_equal; lia.
Qed.

Lemma sh_stop_0 e : sh_stop 0 e = e.
Proof. destruct e as [e ly]. unfold sh_stop. cbn [fst snd]. now rewrite shift_0. Qed.

Lemma map_sh_stop_0 o : option_map (sh_stop 0) o = o.
Proof. destruct o; cbn; [now rewrite sh_stop_0|reflexivity]. Qed.

Definition sh_lsp (k : N) (sp : lax_sliced_packet) : lax_sliced_packet :=
  mkLaxSliced (lsp_link sp) (lsp_exts sp) (lsp_net sp) (lsp_transport sp)
              (option_map (sh_stop k) (lsp_stop_err sp)).

Lemma sh_lsp_nostop k r : has_stop r = false -> sh_lsp k r = r.
Proof.
  unfold has_stop, sh_lsp. destruct r as [l x n t [e|]]; cbn; [discriminate|reflexivity].
Qed.

Lemma slice_transport_shift k o src r p : has_stop r = false ->
  slice_transport (mkLaxCursor (k + o) src r) p =
  match slice_transport (mkLaxCursor o src r) p with Ok sp => Ok (sh_lsp k sp) | x => x end.
Proof.
  intros Hs. unfold slice_transport. cbn [lc_result lc_offset]. rewrite Hs, Bool.orb_false_r.
  assert (Hn : lsp_stop_err r = None).
  { unfold has_stop in Hs. destruct (lsp_stop_err r); [discriminate|reflexivity]. }
  assert (T : forall t, sh_lsp k (with_transport r t) = with_transport r t).
  { intros t. unfold sh_lsp, with_transport. cbn. now rewrite Hn. }
  assert (S1 : forall l ly ps, with_stop r (ELen (fix_len l (k + o) ps), ly) =
                               sh_lsp k (with_stop r (ELen (fix_len l o ps), ly))).
  { intros l ly ps. unfold sh_lsp, with_stop, sh_stop. cbn. now rewrite fix_len_shift. }
  destruct (lipp_fragmented p); [now rewrite sh_lsp_nostop|].
  destruct (lipp_number p =? IPN_ICMP).
  { destruct (Icmpv4Slice.from_slice _) as [x|[l|c]|b]; try reflexivity; [now rewrite T|now rewrite S1]. }
  destruct (lipp_number p =? IPN_UDP).
  { destruct (UdpSlice.from_slice_lax _) as [x|[l|c]|b]; try reflexivity; [now rewrite T|now rewrite S1]. }
  destruct (lipp_number p =? IPN_TCP).
  { destruct (TcpSlice.from_slice _) as [x|[l|c]|b]; try reflexivity; [now rewrite T|now rewrite S1]. }
  destruct (lipp_number p =? IPN_ICMPV6).
  { destruct (Icmpv6Slice.from_slice _) as [x|[l|c]|b]; try reflexivity; [now rewrite T|now rewrite S1]. }
  now rewrite sh_lsp_nostop.
Qed.

(* As in HdrProofs3.v the lock-step carries a relation N6 between the IPv6 layer of the struct
   result and the LaxIpv6Slice of the slicing result, a parameter of which only lip_sound is
   needed; HdrLaxSlots2.v puts the slot-by-slot relation in its place. *)
Section LaxLockstep.
Variable N6 : slice -> exts6 -> lax_ipv6_slice -> Prop.

Definition lip6_ok (ih : ip_headers) (i : lax_ip_slice) : Prop :=
  forall hd x v, ih = IhV6 hd x -> i = LIpV6 v -> N6 hd x v.

Definition lip_sound : Prop := forall s ih p st i st', bytes_ok (snd s) ->
  LaxIpHeaders.from_slice_lax s = Ok (ih, p, st) -> LaxCut.ip_from_slice true s = Ok (i, st') ->
  lip6_ok ih i.

Definition lnet6_agree (p : lhpacket) (sp : lax_sliced_packet) : Prop :=
  forall hd x, lh_net p = Some (HnIp (IhV6 hd x)) -> exists v, lsp_net sp = Some (LNtIpv6 v) /\ N6 hd x v.

Definition lpk6_rel (h : res lhpacket) (s : res lax_sliced_packet) : Prop :=
  match h, s with Ok p, Ok sp => lnet6_agree p sp | _, _ => True end.

Lemma lnet6_agree_none p sp : lh_net p = None -> lnet6_agree p sp.
Proof. intros H hd x X. rewrite H in X. discriminate X. Qed.

(* struct result still without its link header; its stop error lacks the offset k of the
   caller's buffer (from_ethernet adds 14 at the very end) *)
Definition lpk_rel (k : N) (lk : option link_slice) (h : res lhpacket) (s : res lax_sliced_packet)
  : Prop :=
  match h, s with
  | Ok p, Ok sp =>
      lh_link p = None /\ lsp_link sp = lk /\ lnet6_agree p sp /\
      exists v v', lhview_of p = Ok v /\ lconv sp = Ok v' /\
        lhv_exts v = lhv_exts v' /\ lhv_net v = lhv_net v' /\ lhv_tr v = lhv_tr v' /\
        lhv_payload v = carry_src sp (lhv_payload v') /\
        stop_rel true (option_map (sh_stop k) (lhv_stop v)) (lhv_stop v')
  | _, _ => False
  end.

Lemma stop_rel_same k (e : slice_error) ly e' :
  match shift k e, e' with
  | ELen lh, ELen ls => lerr_rel lh ls
  | EContent c, EContent c' => c = c'
  | _, _ => False
  end ->
  stop_rel true (option_map (sh_stop k) (Some (e, ly))) (Some (e', ly)).
Proof. intros H. cbn. split; [reflexivity|]. left. exact H. Qed.

Lemma lconv_ip_notr l x n p stop : lnp n = Some p ->
  lconv (mkLaxSliced l x (Some n) None stop) =
  Ok (mkLHv (match l with Some l0 => lconv_link l0 | None => None end) (map lconv_ext x)
            (Some (lconv_net n)) None (LHvpIp (lview_ipp p)) stop).
Proof.
  intros H. unfold lconv. cbn [lsp_link lsp_exts lsp_net lsp_transport lsp_stop_err].
  destruct n as [v|v|a]; cbn [lnp] in H; try discriminate; injection H as <-; reflexivity.
Qed.

Lemma lconv_ip_tr l x n p ts stop : lnp n = Some p ->
  lconv (mkLaxSliced l x (Some n) (Some ts) stop) =
  (let* r := lconv_tr (lipp_incomplete p) ts in
   Ok (mkLHv (match l with Some l0 => lconv_link l0 | None => None end) (map lconv_ext x)
             (Some (lconv_net n)) (Some (fst r)) (snd r) stop)).
Proof.
  intros H. unfold lconv. cbn [lsp_link lsp_exts lsp_net lsp_transport lsp_stop_err]. rewrite H.
  destruct (lconv_tr (lipp_incomplete p) ts); reflexivity.
Qed.

Lemma lip_tail k c s (self : lhpacket) offset ih p st i st' :
  lh_link self = None -> lh_transport self = None -> lh_stop self = None ->
  lsp_net (lc_result c) = None -> lsp_transport (lc_result c) = None ->
  lsp_stop_err (lc_result c) = None ->
  map hview_ext (lh_exts self) = map lconv_ext (lsp_exts (lc_result c)) ->
  lc_offset c = k + offset ->
  lipd_rel s (Ok (ih, p, st)) (Ok (i, st')) -> lip6_ok ih i ->
  lpk_rel k (lsp_link (lc_result c))
    (let self1 := mkLH (lh_link self) (lh_exts self) (Some (HnIp ih)) (lh_transport self)
                       (LHpIp p) (lh_stop self) in
     match st with
     | Some e => Ok (LaxPacketHeaders.with_stop self1 (LaxPacketHeaders.ip_stop p offset e))
     | None =>
         let* d := subN (s_off (lipp_slice p)) (s_off s) in
         LaxPacketHeaders.add_transport self1 p (offset + d)
     end)
    (let r := lc_result c in
     let r1 := with_net r (net_of_ip i) in
     let r2 :=
       with_opt_stop r1
         (option_map (conv_ext_stop (is_v4 i) (fun l => fix_len l (lc_offset c) (lc_src c))) st') in
     let payload := LaxIpSlice.payload i in
     let* d := ptr_diff (lipp_slice payload) s in
     let src' := if is_slice_src (lipp_src payload) then lc_src c else lipp_src payload in
     slice_transport (mkLaxCursor (lc_offset c + d) src' r2) payload).
Proof.
  intros Hl Ht Hs Cn Ct Cs Hx Hoff (-> & Hnet & -> & Hle & Hsrc) H6.
  assert (G : forall hd x, ih = IhV6 hd x -> exists v, net_of_ip i = LNtIpv6 v /\ N6 hd x v).
  { intros hd x ->. pose proof (hview_net_v6 _ _ _ Hnet) as W.
    destruct i as [v4|v]; [contradiction|]. exists v. split; [reflexivity|]. now apply H6. }
  assert (G' : forall q sp, lh_net q = Some (HnIp ih) -> lsp_net sp = Some (net_of_ip i) -> lnet6_agree q sp).
  { intros q sp Hq Hsp hd x X. rewrite Hq in X. injection X as ->. rewrite Hsp.
    destruct (G _ _ eq_refl) as (v & -> & Hv). now exists v. }
  cbv zeta. unfold ptr_diff. rewrite subN_ok by lia. cbn [bind].
  set (r := lc_result c) in *. set (p := LaxIpSlice.payload i) in *.
  rewrite Hl, Ht, Hs.
  assert (Hnp : lnp (net_of_ip i) = Some p) by (destruct i; reflexivity).
  set (n := net_of_ip i) in *.
  destruct st' as [e'|]; cbn [option_map with_opt_stop].
  - (* stopped in the extension headers / the authentication header *)
    unfold slice_transport. cbn [lc_result]. unfold has_stop at 1. cbn [with_stop lsp_stop_err].
    rewrite Bool.orb_true_r.
    unfold lpk_rel, LaxPacketHeaders.with_stop.
    cbn [lh_link lh_exts lh_net lh_transport lh_payload lh_stop with_stop with_net lsp_link].
    split; [reflexivity|]. split; [reflexivity|]. split; [now apply G'|].
    unfold with_stop, with_net.
    cbn [lsp_link lsp_exts lsp_net lsp_transport lsp_stop_err]. rewrite Ct.
    rewrite (lconv_ip_notr _ _ n p _ Hnp).
    unfold lhview_of.
    cbn [lh_link lh_exts lh_net lh_transport lh_payload lh_stop].
    rewrite Hnet. cbn [bind option_map].
    eexists. eexists. split; [reflexivity|]. split; [reflexivity|].
    cbn [lhv_exts lhv_net lhv_tr lhv_payload lhv_stop lhview_payload carry_src].
    split; [exact Hx|]. split; [reflexivity|]. split; [reflexivity|]. split; [reflexivity|].
    destruct e' as [[l|ce] ly].
    + unfold LaxPacketHeaders.ip_stop. cbn [conv_ext_stop fst snd].
      apply stop_rel_same. cbn [shift].
      specialize (Hsrc l ly eq_refl). rewrite Hoff.
      replace (le_set_src (le_add_offset l offset) (lipp_src p)) with (le_add_offset l offset)
        by (destruct l as [rq nn sr y o]; cbn in Hsrc; subst sr; reflexivity).
      apply lerr_rel_fix.
    + unfold LaxPacketHeaders.ip_stop.
      destruct ce; cbn [conv_ext_stop fst snd]; apply stop_rel_same; reflexivity.
  - (* the transport layer *)
    rewrite Hoff. rewrite <- N.add_assoc.
    set (d := s_off (lipp_slice p) - s_off s).
    set (src' := if is_slice_src (lipp_src p) then lc_src c else lipp_src p).
    set (r1 := with_net r n).
    set (self1 := mkLH None (lh_exts self) (Some (HnIp ih)) None (LHpIp p) None).
    assert (Hs1 : has_stop r1 = false) by (unfold has_stop, r1; cbn; now rewrite Cs).
    rewrite (slice_transport_shift k (offset + d) src' r1 p Hs1).
    pose proof (lax_transport_agree self1 p (mkLaxCursor (offset + d) src' r1) Hs1 Ct) as T.
    cbn [lc_offset lc_result] in T. unfold ltr_rel in T.
    destruct (LaxPacketHeaders.add_transport self1 p (offset + d)) as [r'|e|b];
      destruct (slice_transport (mkLaxCursor (offset + d) src' r1) p) as [sp|e'|b']; try contradiction.
    destruct T as (T1 & T2 & T3 & T4 & T5 & T6 & T7).
    destruct r' as [rl rx rn rt rp rs]. destruct sp as [sl sx sn st0 ss].
    cbn [lh_link lh_exts lh_net lh_transport lh_payload lh_stop lsp_link lsp_exts lsp_net lsp_transport
         lsp_stop_err self1 r1 with_net lc_result] in T1, T2, T3, T4, T5, T6, T7.
    subst rl rx rn sl sx sn.
    unfold lpk_rel, sh_lsp.
    cbn [lh_link lsp_link lsp_exts lsp_net lsp_transport lsp_stop_err].
    split; [reflexivity|]. split; [reflexivity|]. split; [now apply G'|].
    unfold lhview_of.
    cbn [lh_link lh_exts lh_net lh_transport lh_payload lh_stop].
    rewrite Hnet. cbn [bind option_map].
    destruct st0 as [ts|].
    + destruct T7 as (t & -> & Ec & -> & ->).
      rewrite (lconv_ip_tr _ _ n p ts _ Hnp). rewrite Ec. cbn [bind fst snd option_map].
      eexists. eexists. split; [reflexivity|]. split; [reflexivity|].
      cbn [lhv_exts lhv_net lhv_tr lhv_payload lhv_stop].
      split; [exact Hx|]. split; [reflexivity|]. split; [reflexivity|]. split; [|exact I].
      destruct (lhview_payload rp); try reflexivity.
      (* an ether payload cannot be the payload of a transport slice *)
      destruct ts; cbn [lconv_tr] in Ec; try discriminate.
      destruct (Icmpv4Acc.header_len s0); discriminate.
    + destruct T7 as (-> & -> & T7).
      rewrite (lconv_ip_notr _ _ n p _ Hnp).
      eexists. eexists. split; [reflexivity|]. split; [reflexivity|].
      cbn [lhv_exts lhv_net lhv_tr lhv_payload lhv_stop fst snd lhview_payload carry_src].
      split; [exact Hx|]. split; [reflexivity|]. split; [reflexivity|]. split; [reflexivity|].
      destruct ss as [[e ly]|]; rewrite T7; cbn [option_map]; [|exact I].
      unfold sh_stop. cbn [fst snd]. split; [reflexivity|]. left.
      destruct e as [l|ce]; cbn [shift]; [left|]; reflexivity.
Qed.

Lemma arp_no_content s c : ArpPacketSlice.from_slice s <> Err (EContent c).
Proof.
  unfold ArpPacketSlice.from_slice, lerr.
  destruct (s_len s <? 8) eqn:E8; [discriminate|].
  rdok s 4. rdok s 5.
  destruct (s_len s <? 8 + v * 2 + v0 * 2) eqn:El; [discriminate|].
  rewrite subU_eq by lia. discriminate.
Qed.

Record lloop_inv (bs : bytes) (k : N) (st : LaxPacketHeaders.lstate) (c : lax_cursor)
  (ep : ether_payload) (pos lim : N) : Prop := mkLLoopInv {
  lli_et : ep_ether_type ep = LaxPacketHeaders.ls_et st;
  lli_slice : ep_slice ep = LaxPacketHeaders.ls_rest st;
  lli_repr : repr bs (LaxPacketHeaders.ls_rest st) pos lim;
  lli_off : lc_offset c = k + LaxPacketHeaders.ls_offset st;
  lli_csrc : lc_src c = LaxPacketHeaders.ls_src st;
  lli_exts : map hview_ext (lh_exts (LaxPacketHeaders.ls_result st)) =
             map lconv_ext (lsp_exts (lc_result c));
  lli_hlink : lh_link (LaxPacketHeaders.ls_result st) = None;
  lli_hnet : lh_net (LaxPacketHeaders.ls_result st) = None;
  lli_htr : lh_transport (LaxPacketHeaders.ls_result st) = None;
  lli_hstop : lh_stop (LaxPacketHeaders.ls_result st) = None;
  lli_net : lsp_net (lc_result c) = None;
  lli_tr : lsp_transport (lc_result c) = None;
  lli_stop : lsp_stop_err (lc_result c) = None;
  lli_src : lexts_src (lsp_exts (lc_result c)) LsSlice = LaxPacketHeaders.ls_src st;
  lli_payload : exists pv, lconv_ether_payload (lc_result c) = Ok pv /\
                  lhview_payload (lh_payload (LaxPacketHeaders.ls_result st)) = carry_src (lc_result c) pv }.

Import LaxPacketHeaders.

Lemma lnet_else bs k st c ep pos lim :
  lloop_inv bs k st c ep pos lim ->
  lpk_rel k (lsp_link (lc_result c)) (Ok (ls_result st)) (Ok (lc_result c)).
Proof.
  intros [I1 I2 I3 I4 I5 I6 I7 I8 I9 I10 I11 I12 I13 I14 (pv & Epv & Hpv)].
  unfold lpk_rel. split; [exact I7|]. split; [reflexivity|]. split; [now apply lnet6_agree_none|].
  unfold lhview_of, lconv. rewrite I8, I9, I10, I11, I12, I13, Epv. cbn [bind fst snd option_map].
  eexists. eexists. split; [reflexivity|]. split; [reflexivity|].
  cbn [lhv_exts lhv_net lhv_tr lhv_payload lhv_stop option_map].
  split; [exact I6|]. split; [reflexivity|]. split; [reflexivity|]. split; [exact Hpv|exact I].
Qed.

(* the stop error put in front of a fault of the first IP header / ARP / VLAN / MACsec header *)
Lemma lpk_stop bs k st c ep pos lim eh es ly :
  lloop_inv bs k st c ep pos lim ->
  stop_rel true (option_map (sh_stop k) (Some (eh, ly))) (Some (es, ly)) ->
  lpk_rel k (lsp_link (lc_result c))
    (Ok (LaxPacketHeaders.with_stop (ls_result st) (eh, ly)))
    (Ok (LaxSlicedPacketCursor.with_stop (lc_result c) (es, ly))).
Proof.
  intros [I1 I2 I3 I4 I5 I6 I7 I8 I9 I10 I11 I12 I13 I14 (pv & Epv & Hpv)] Hst.
  unfold lpk_rel, LaxPacketHeaders.with_stop, LaxSlicedPacketCursor.with_stop.
  cbn [lh_link lsp_link]. split; [exact I7|]. split; [reflexivity|]. split; [now apply lnet6_agree_none|].
  unfold lhview_of, lconv.
  cbn [lh_link lh_exts lh_net lh_transport lh_payload lh_stop lsp_link lsp_exts lsp_net lsp_transport
       lsp_stop_err].
  rewrite I8, I9, I11, I12. cbn [bind option_map].
  match goal with |- context [lconv_ether_payload ?X] =>
    assert (Epv' : lconv_ether_payload X = Ok pv) by (rewrite <- Epv; unfold lconv_ether_payload; reflexivity)
  end.
  rewrite Epv'. cbn [bind fst snd].
  eexists. eexists. split; [reflexivity|]. split; [reflexivity|].
  cbn [lhv_exts lhv_net lhv_tr lhv_payload lhv_stop].
  split; [exact I6|]. split; [reflexivity|]. split; [reflexivity|]. split; [|exact Hst].
  rewrite Hpv. destruct pv; reflexivity.
Qed.

Lemma lnet_agree (N6_ip : lip_sound) bs (Hok : bytes_ok bs) k st c ep pos lim :
  lloop_inv bs k st c ep pos lim ->
  lpk_rel k (lsp_link (lc_result c)) (net_part st)
    (if ep_ether_type ep =? ET_ARP then slice_arp c (ep_slice ep)
     else if ep_ether_type ep =? ET_IPV4 then LaxCut.slice_ip true c (ep_slice ep)
     else if ep_ether_type ep =? ET_IPV6 then LaxCut.slice_ip true c (ep_slice ep)
     else Ok (lc_result c)).
Proof.
  intros Inv. pose proof Inv as [I1 I2 I3 I4 I5 I6 I7 I8 I9 I10 I11 I12 I13 I14 I15].
  rewrite I1, I2. unfold net_part.
  set (rest := ls_rest st) in *.
  pose proof (repr_bytes_ok _ _ _ _ Hok I3) as Rok.
  assert (IP : lpk_rel k (lsp_link (lc_result c))
                 (match add_ip (ls_result st) (ls_offset st) rest with
                  | Ok r => Ok r
                  | Err (ELen l) =>
                      Ok (LaxPacketHeaders.with_stop (ls_result st)
                            (ELen (le_add_offset l (ls_offset st)), LyIpHeader))
                  | Err (EContent c0) =>
                      Ok (LaxPacketHeaders.with_stop (ls_result st) (EContent c0, LyIpHeader))
                  | Bug b => Bug b
                  end) (LaxCut.slice_ip true c rest)).
  { unfold add_ip, LaxCut.slice_ip.
    assert (Class : (exists b0, rd (snd rest) 0 = Some b0 /\ N.shiftr b0 4 = 4 /\ s_len rest < 20) \/
                    (forall b0, rd (snd rest) 0 = Some b0 -> N.shiftr b0 4 = 4 -> 20 <= s_len rest)).
    { destruct (rd (snd rest) 0) as [b0|] eqn:Eb; [|right; intros; discriminate].
      destruct (N.shiftr b0 4 =? 4) eqn:V; [|right; intros b1 E1 V1; injection E1 as <-; lia].
      destruct (s_len rest <? 20) eqn:L; [left; exists b0; repeat split; lia|].
      right. intros; lia. }
    destruct Class as [(b0 & Eb & V4 & L20)|Hf].
    - (* F11: a cut-short IPv4 header, recorded differently by the two families *)
      destruct (lax_ip_f11 rest b0 true Eb V4 L20) as (e & e' & -> & -> & -> & He').
      cbn [bind]. rewrite I4.
      destruct He' as [(i & Hi & ->)|(hl & Hhl & ->)].
      + apply (lpk_stop bs k st c ep pos lim _ _ _ Inv). cbn. split; [reflexivity|]. right.
        split; [reflexivity|]. split; [reflexivity|].
        exists (s_len rest), (0 + ls_offset st + k). split; [lia|]. split; [reflexivity|].
        left. eauto.
      + apply (lpk_stop bs k st c ep pos lim _ _ _ Inv). cbn. split; [reflexivity|]. right.
        split; [reflexivity|]. split; [reflexivity|].
        exists (s_len rest), (0 + ls_offset st + k). split; [lia|]. split; [reflexivity|].
        right. exists hl, (lc_src c). split; [exact Hhl|]. unfold fix_len, le_add_offset, le_set_src. cbn.
        do 2 f_equal. lia.
    - pose proof (lax_ip_agree rest Rok Hf) as A.
      destruct (LaxIpHeaders.from_slice_lax rest) as [[[ih p] sth]|e|b] eqn:Eh;
        destruct (LaxCut.ip_from_slice true rest) as [[i st']|e'|b'] eqn:Ec; try contradiction; cbn [bind].
      + pose proof (lip_tail k c rest (ls_result st) (ls_offset st) ih p sth i st'
                      I7 I9 I10 I11 I12 I13 I6 I4 A (N6_ip _ _ _ _ _ _ Rok Eh Ec)) as T.
        cbv zeta in T.
        match type of T with lpk_rel _ _ ?X _ =>
          match goal with |- lpk_rel _ _ (match ?Y with _ => _ end) _ => change Y with X end end.
        match type of T with lpk_rel _ _ ?X ?Z => destruct X as [r'|e|b] end;
          [exact T|exfalso; exact T|exfalso; exact T].
      + cbn in A. subst e'. rewrite I4.
        destruct e as [l|ce]; apply (lpk_stop bs k st c ep pos lim _ _ _ Inv); apply stop_rel_same; cbn [shift];
          [apply lerr_rel_fix|reflexivity]. }
  destruct (ls_et st =? ET_IPV4) eqn:E4.
  { assert (Ea : (ls_et st =? ET_ARP) = false) by (unfold ET_IPV4, ET_ARP in *; lia). rewrite Ea.
    cbn [orb]. exact IP. }
  destruct (ls_et st =? ET_IPV6) eqn:E6.
  { assert (Ea : (ls_et st =? ET_ARP) = false) by (unfold ET_IPV6, ET_ARP in *; lia). rewrite Ea.
    cbn [orb]. exact IP. }
  cbn [orb].
  destruct (ls_et st =? ET_ARP) eqn:Ea; [|now apply (lnet_else bs k st c ep pos lim)].
  unfold slice_arp. pose proof (arp_no_content rest) as Nc.
  destruct (ArpPacketSlice.from_slice rest) as [a|[l|ce]|b] eqn:Earp.
  - destruct I15 as (pv & Epv & Hpv).
    unfold lpk_rel, with_net. cbn [lh_link lsp_link]. split; [exact I7|]. split; [reflexivity|].
    split; [intros hd x X; discriminate X|].
    unfold lhview_of, lconv.
    cbn [lh_link lh_exts lh_net lh_transport lh_payload lh_stop lsp_link lsp_exts lsp_net lsp_transport
         lsp_stop_err hview_net].
    rewrite I9, I10, I12, I13. cbn [bind option_map fst snd].
    eexists. eexists. split; [reflexivity|]. split; [reflexivity|].
    cbn [lhv_exts lhv_net lhv_tr lhv_payload lhv_stop lhview_payload carry_src lconv_net].
    split; [exact I6|]. repeat split.
  - rewrite I4. apply (lpk_stop bs k st c ep pos lim _ _ _ Inv). apply stop_rel_same. cbn [shift].
    apply lerr_rel_fix.
  - now destruct (Nc ce).
  - (* ArpPacketSlice::from_slice reads inside the checked length: never Bug *)
    exfalso. revert Earp. unfold ArpPacketSlice.from_slice, lerr.
    destruct (s_len rest <? 8) eqn:E8; [discriminate|].
    rdok rest 4. rdok rest 5.
    destruct (s_len rest <? 8 + v * 2 + v0 * 2) eqn:El; [discriminate|].
    rewrite subU_eq by lia. discriminate.
Qed.

Lemma lax_macsec_shape bs s pos lim : bytes_ok bs -> repr bs s pos lim ->
  match LaxMacsecSlice.from_slice s with
  | Ok m =>
      exists hl, Macsec.header_len (lms_header m) = Ok hl /\
        match lms_payload m with
        | LMpUnmodified e => exists lim', repr bs (lep_slice e) (pos + hl) lim'
        | LMpModified _ _ => True
        end
  | Err (ELen l) => le_layer l = LyMacsecHeader
  | Err (EContent _) => True
  | Bug _ => False
  end.
Proof.
  intros Hok R. rewrite (lax_macsec_from_slice_eq bs s pos lim Hok R).
  destruct (lim - pos <? 6) eqn:E6; [reflexivity|].
  destruct (128 <=? B bs pos) eqn:Ever; [exact I|].
  set (tci := B bs pos) in *.
  set (sl := B bs (pos + 1) mod 64) in *.
  set (unmod := (tci / 4) mod 4 =? 0) in *.
  set (sc := negb ((tci / 32) mod 2 =? 0)) in *.
  destruct (unmod && (sl =? 1)) eqn:Eu; [exact I|].
  set (hl := 6 + (if unmod then 2 else 0) + (if sc then 8 else 0)) in *.
  destruct (lim - pos <? hl) eqn:Eh; [reflexivity|].
  set (body := if unmod then sl - 2 else sl) in *.
  cbv zeta.
  set (inc := (0 <? sl) && (lim - pos <? hl + body)) in *.
  set (short := (0 <? sl) && negb (lim - pos <? hl + body)) in *.
  set (plen := if short then body else lim - pos - hl) in *.
  set (psrc := if short then LsMacsecShortLength else LsSlice) in *.
  assert (Hhl : hl <= lim - pos) by (clear -Eh; lia).
  assert (Hhl6 : 6 <= hl) by (clear; subst hl; destruct unmod, sc; lia).
  pose proof (repr_sub bs s pos lim 0 hl R ltac:(clear -Hhl; lia)) as Rh.
  rewrite N.add_0_r, drop0 in Rh.
  set (header := (pos, take hl (snd s))) in *.
  assert (Hplen : hl + plen <= lim - pos).
  { subst plen short. clear -Hhl. clearbody hl body sl.
    destruct (0 <? sl); destruct (lim - pos <? hl + body) eqn:Eb; cbn [andb negb]; lia. }
  pose proof (repr_sub bs s pos lim hl plen R Hplen) as Rp.
  set (payload := (pos + hl, take plen (drop hl (snd s)))) in *.
  pose proof (B_lt bs pos Hok) as Ht. fold tci in Ht.
  exists hl. cbn [lms_header lms_payload]. split.
  { unfold Macsec.header_len, Macsec.sci_present, Macsec.is_unmodified, Macsec.tci_an_raw.
    rd8 Rh 0. rewrite N.add_0_r. fold tci.
    rewrite (bit32 tci Ht), (land12 tci Ht). fold sc unmod. subst hl. f_equal. apply N.add_shuffle0. }
  destruct unmod; [|exact I]. cbn [lep_slice]. exists (pos + hl + plen). exact Rp.
Qed.

Definition l_run (fuel : nat) (st : lstate) : res lhpacket :=
  let* o := link_loop fuel st in
  match o with
  | LLReturn p => Ok p
  | LLBreak st' => net_part st'
  end.

Lemma lexts_src_snoc_vlan l s acc : lexts_src (l ++ [LLeVlan s]) acc = lexts_src l acc.
Proof.
  revert acc. induction l as [|x l IH]; intros acc; [reflexivity|].
  cbn [app lexts_src]. destruct x as [v|m]; [apply IH|]. destruct (lms_payload m); apply IH.
Qed.

Lemma lexts_src_snoc_macsec l m acc :
  lexts_src (l ++ [LLeMacsec m]) acc =
  match lms_payload m with
  | LMpUnmodified e => match lep_src e with LsSlice => lexts_src l acc | s => s end
  | LMpModified _ _ => lexts_src l acc
  end.
Proof.
  revert acc. induction l as [|x l IH]; intros acc.
  - cbn [app lexts_src]. destruct (lms_payload m); reflexivity.
  - cbn [app lexts_src]. destruct x as [v|m']; [apply IH|]. destruct (lms_payload m'); apply IH.
Qed.

Lemma last_some_snoc {A} (l : list A) x : last (map Some (l ++ [x])) None = Some x.
Proof. rewrite map_app. cbn [map]. apply last_last. Qed.

Lemma lloop_agree (N6_ip : lip_sound) bs (Hok : bytes_ok bs) k cap :
  forall fuel st c ep pos lim,
    (cap < fuel)%nat -> N.of_nat cap + len (lsp_exts (lc_result c)) = 3 ->
    lloop_inv bs k st c ep pos lim ->
    lpk_rel k (lsp_link (lc_result c)) (l_run fuel st) (LaxCut.slice_ether_type_loop true fuel c ep).
Proof.
  induction cap as [|cap IH]; intros fuel st c ep pos lim Hf Hcap Inv;
    (destruct fuel as [|f]; [lia|]);
    pose proof Inv as [I1 I2 I3 I4 I5 I6 I7 I8 I9 I10 I11 I12 I13 I14 I15];
    pose proof (map_eq_len _ _ _ _ I6) as Hlen;
    unfold l_run; cbn [link_loop LaxCut.slice_ether_type_loop]; cbv zeta; unfold is_vlan_type;
    rewrite I1, Hlen; unfold LINK_EXTS_CAP.
  - (* link_exts is full *)
    destruct (SlicedPacketCursor.is_vlan_type (ls_et st)) eqn:Ev.
    { destruct (3 <=? len (lsp_exts (lc_result c))) eqn:E3; [|lia].
      destruct (vlan_not_net _ Ev) as (_ & Nv4 & Nv6 & Na).
      cbn [bind]. unfold net_part. rewrite Nv4, Nv6, Na. cbn [orb]. now apply (lnet_else bs k st c ep pos lim). }
    destruct (ls_et st =? ET_MACSEC) eqn:Em.
    { destruct (3 <=? len (lsp_exts (lc_result c))) eqn:E3; [|lia].
      destruct (macsec_not_net _ Em) as (Nv4 & Nv6 & Na).
      cbn [bind]. unfold net_part. rewrite Nv4, Nv6, Na. cbn [orb]. now apply (lnet_else bs k st c ep pos lim). }
    rewrite <- I1. now apply (lnet_agree N6_ip bs Hok k st c ep pos lim).
  - set (rest := ls_rest st) in *.
    pose proof (repr_off _ _ _ _ I3) as Ro. pose proof (repr_len _ _ _ _ I3) as Rl.
    destruct (SlicedPacketCursor.is_vlan_type (ls_et st)) eqn:Ev.
    { (* VLAN tag *)
      destruct (3 <=? len (lsp_exts (lc_result c))) eqn:E3; [lia|].
      rewrite I2. fold rest.
      unfold SingleVlanHeader.from_slice, SingleVlanSlice.from_slice.
      destruct (s_len rest <? 4) eqn:E4.
      { unfold lerr. cbn [bind]. rewrite I4.
        apply (lpk_stop bs k st c ep pos lim _ _ _ Inv). apply stop_rel_same. cbn [shift].
        left. apply add_add. }
      rewrite subU_eq by lia. cbn [bind]. rewrite idx_from_eq by lia. cbn [bind].
      unfold SingleVlanHeader.ether_type, SingleVlanSlice.payload, SingleVlanSlice.ether_type,
        SingleVlanSlice.payload_slice.
      rewrite rd16_prefix by lia.
      destruct (rd16_ok rest 2) as (et' & Eet); [lia|]. rewrite Eet. cbn [bind].
      rewrite subN_ok by lia. cbn [bind]. rewrite subU_rest by lia. cbn [bind].
      unfold LaxPacketHeaders.push_ext, LaxSlicedPacketCursor.push_ext, LINK_EXTS_CAP, with_payload.
      cbn [lh_link lh_exts lh_net lh_transport lh_payload lh_stop]. rewrite Hlen.
      destruct (len (lsp_exts (lc_result c)) <? 3) eqn:E3'; [|lia]. cbn [bind ep_ether_type ep_slice].
      set (vlan := (fst rest + 0, take 4 (drop 0 (snd rest)))).
      set (vrest := (fst rest + 4, drop 4 (snd rest))).
      assert (Rv : repr bs vrest (pos + 4) lim).
      { destruct (repr_rest bs rest pos lim 4 I3 ltac:(lia)) as (s' & Es' & Rs').
        rewrite <- Rl in Es'. rewrite subU_rest in Es' by lia. injection Es' as <-. exact Rs'. }
      match goal with |- lpk_rel _ _ _ (LaxCut.slice_ether_type_loop _ _ ?c' ?ep') =>
        apply (IH f _ c' ep' (pos + 4) lim) end;
        [lia|cbn [lc_result lsp_exts]; rewrite len_app; cbn; lia|].
      constructor; cbn [ep_ether_type ep_slice ls_et ls_rest ls_offset ls_src ls_result lc_offset lc_src
                         lc_result lh_link lh_exts lh_net lh_transport lh_payload lh_stop
                         lsp_link lsp_exts lsp_net lsp_transport lsp_stop_err]; auto.
      - unfold SingleVlanSlice.header_len. lia.
      - rewrite !map_app, I6. cbn [map hview_ext lconv_ext]. do 2 f_equal. subst vlan.
        rewrite win_sub by lia. unfold s_off. now rewrite N.add_0_r.
      - now rewrite lexts_src_snoc_vlan.
      - eexists. split.
        + unfold lconv_ether_payload. cbn [lsp_exts]. rewrite last_some_snoc.
          unfold SingleVlanSlice.payload, SingleVlanSlice.ether_type, SingleVlanSlice.payload_slice.
          rewrite Eet. cbn [bind]. rewrite subN_ok by lia. cbn [bind]. rewrite subU_rest by lia. cbn [bind].
          reflexivity.
        + cbn [lhview_payload carry_src lview_ep lep_incomplete lep_ether_type lep_src lep_slice
               lvep_incomplete lvep_type lvep_win ep_ether_type ep_slice lsp_exts].
          rewrite lexts_src_snoc_vlan, I14. reflexivity. }
    destruct (ls_et st =? ET_MACSEC) eqn:Em;
      [|rewrite <- I1; now apply (lnet_agree N6_ip bs Hok k st c ep pos lim)].
    (* MACsec *)
    destruct (3 <=? len (lsp_exts (lc_result c))) eqn:E3; [lia|].
    rewrite I2. fold rest.
    pose proof (lax_macsec_shape bs rest pos lim Hok I3) as Sh.
    destruct (LaxMacsecSlice.from_slice rest) as [m|[l|ce]|b]; try contradiction.
    + destruct Sh as (hl & Ehl & Shp).
      rewrite Ehl. cbn [bind].
      unfold LaxPacketHeaders.push_ext, LaxSlicedPacketCursor.push_ext, LINK_EXTS_CAP. rewrite Hlen.
      destruct (len (lsp_exts (lc_result c)) <? 3) eqn:E3'; [|lia]. cbn [bind].
      assert (Hx : map hview_ext (lh_exts (ls_result st) ++ [HxMacsec (lms_header m)]) =
                   map lconv_ext (lsp_exts (lc_result c) ++ [LLeMacsec m])).
      { rewrite !map_app, I6. reflexivity. }
      destruct (lms_payload m) as [e|inc mp] eqn:Emp.
      * destruct Shp as (lim' & Re).
        rewrite ?Ehl. cbn [bind].
        assert (Esrc : (if negb (is_slice_src (lep_src e)) then lep_src e else lc_src c) =
                       match lep_src e with LsSlice => ls_src st | s => s end).
        { rewrite I5. destruct (lep_src e); reflexivity. }
        rewrite Esrc.
        match goal with |- lpk_rel _ _ _ (LaxCut.slice_ether_type_loop _ _ ?c' ?ep') =>
          apply (IH f _ c' ep' (pos + hl) lim') end;
          [lia|cbn [lc_result lsp_exts]; rewrite len_app; cbn; lia|].
        constructor; cbn [ep_ether_type ep_slice ls_et ls_rest ls_offset ls_src ls_result lc_offset lc_src
                           lc_result lh_link lh_exts lh_net lh_transport lh_payload lh_stop with_payload
                           lsp_link lsp_exts lsp_net lsp_transport lsp_stop_err]; auto.
        -- lia.
        -- rewrite lexts_src_snoc_macsec, Emp, I14. reflexivity.
        -- eexists. split.
           ++ unfold lconv_ether_payload. cbn [lsp_exts]. rewrite last_some_snoc. rewrite Emp. reflexivity.
           ++ cbn [lhview_payload carry_src lview_ep lep_incomplete lep_ether_type lep_src lep_slice
                   lvep_incomplete lvep_type lvep_win lsp_exts].
              rewrite lexts_src_snoc_macsec, Emp, I14. reflexivity.
      * unfold lpk_rel, with_payload.
        cbn [lh_link lsp_link lh_exts lh_net lh_transport lh_payload lh_stop].
        split; [exact I7|]. split; [reflexivity|]. split; [now apply lnet6_agree_none|].
        unfold lhview_of, lconv.
        cbn [lh_link lh_exts lh_net lh_transport lh_payload lh_stop lsp_link lsp_exts lsp_net lsp_transport
             lsp_stop_err].
        rewrite I8, I9, I10, I11, I12, I13. cbn [bind option_map].
        unfold lconv_ether_payload. cbn [lsp_exts]. rewrite last_some_snoc, Emp. cbn [bind fst snd].
        eexists. eexists. split; [reflexivity|]. split; [reflexivity|].
        cbn [lhv_exts lhv_net lhv_tr lhv_payload lhv_stop lhview_payload carry_src option_map].
        split; [exact Hx|]. repeat split.
    + rewrite I4. rewrite Sh.
      apply (lpk_stop bs k st c ep pos lim _ _ _ Inv). apply stop_rel_same. cbn [shift].
      left. apply add_add.
    + apply (lpk_stop bs k st c ep pos lim _ _ _ Inv). apply stop_rel_same. reflexivity.
Qed.

Lemma lhview_of_link p v l : lhview_of p = Ok v ->
  lhview_of (mkLH l (lh_exts p) (lh_net p) (lh_transport p) (lh_payload p) (lh_stop p)) =
  Ok (mkLHv (option_map lhview_link l) (lhv_exts v) (lhv_net v) (lhv_tr v) (lhv_payload v) (lhv_stop v)).
Proof.
  unfold lhview_of. cbn [lh_link lh_exts lh_net lh_transport lh_payload lh_stop].
  destruct (match lh_net p with Some n => _ | None => _ end); cbn [bind]; try discriminate.
  intros H. injection H as <-. reflexivity.
Qed.

Lemma lconv_link_field sp v : lconv sp = Ok v ->
  lhv_link v = match lsp_link sp with Some l => lconv_link l | None => None end.
Proof.
  unfold lconv.
  destruct (match lsp_transport sp with Some t => _ | None => _ end); cbn [bind]; try discriminate.
  intros H. injection H as <-. reflexivity.
Qed.

Lemma from_ether_type_slice_run et s :
  from_ether_type_slice et s =
  l_run 5 (mkLs (mkLH None [] None None (LHpEther (mkLaxEp false et LsSlice s)) None) s 0 et LsSlice).
Proof. reflexivity. Qed.

Lemma llockstep_ether_type (N6_ip : lip_sound) et bs : bytes_ok bs ->
  lhagree true (LaxPacketHeaders.from_ether_type et bs) (LaxCut.from_ether_type true et bs) /\
  lpk6_rel (LaxPacketHeaders.from_ether_type et bs) (LaxCut.from_ether_type true et bs).
Proof.
  intros Hok.
  unfold LaxPacketHeaders.from_ether_type, LaxCut.from_ether_type, LaxCut.parse_from_ether_type,
    LaxCut.slice_ether_type.
  rewrite from_ether_type_slice_run.
  set (ep := mkEtherPayload et LsSlice (mk_slice bs)).
  set (c := mkLaxCursor 0 LsSlice (LaxSlicedPacketCursor.with_link empty (LkEtherPayload ep))).
  set (st := mkLs (mkLH None [] None None (LHpEther (mkLaxEp false et LsSlice (mk_slice bs))) None)
                  (mk_slice bs) 0 et LsSlice).
  assert (P : lpk_rel 0 (lsp_link (lc_result c)) (l_run 5 st) (LaxCut.slice_ether_type_loop true 5 c ep)).
  { apply (lloop_agree N6_ip bs Hok 0 3 5 st c ep 0 (len bs)); [lia|reflexivity|].
    constructor; try reflexivity; try apply repr_whole.
    eexists. split; reflexivity. }
  unfold lpk_rel in P. unfold lhagree.
  destruct (l_run 5 st) as [p|e|b]; destruct (LaxCut.slice_ether_type_loop true 5 c ep) as [sp|e'|b'];
    try contradiction.
  destruct P as (Hl & Hlk & H6 & v & v' & Hv & Hc & Hx & Hn & Ht & Hp & Hs).
  split; [|exact H6]. exists v, v'. split; [exact Hv|]. split; [exact Hc|].
  unfold lhv_rel. rewrite map_sh_stop_0 in Hs. split; [|tauto].
  rewrite (lconv_link_field _ _ Hc), Hlk. cbn.
  unfold lhview_of in Hv. rewrite Hl in Hv.
  destruct (match lh_net p with Some n => _ | None => _ end); cbn [bind] in Hv; try discriminate.
  injection Hv as <-. reflexivity.
Qed.

Lemma shift_stop_view r k v : lhview_of r = Ok v ->
  lhview_of (shift_stop r k) =
  Ok (mkLHv (lhv_link v) (lhv_exts v) (lhv_net v) (lhv_tr v) (lhv_payload v)
            (option_map (sh_stop k) (lhv_stop v))).
Proof.
  unfold lhview_of, shift_stop.
  destruct (match lh_net r with Some n => _ | None => _ end) eqn:En; cbn [bind]; try discriminate.
  intros H. injection H as <-. cbn [lhv_link lhv_exts lhv_net lhv_tr lhv_payload lhv_stop].
  destruct (lh_stop r) as [[[l|ce] ly]|] eqn:Es;
    cbn [lh_link lh_exts lh_net lh_transport lh_payload lh_stop]; rewrite En; cbn [bind];
    rewrite ?Es; reflexivity.
Qed.

Lemma shift_stop_net r k : lh_net (shift_stop r k) = lh_net r.
Proof. unfold shift_stop. destruct (lh_stop r) as [[[l|c] ly]|]; reflexivity. Qed.

Lemma llockstep_ethernet (N6_ip : lip_sound) bs : bytes_ok bs ->
  lhagree true (LaxPacketHeaders.from_ethernet bs) (LaxCut.from_ethernet true bs) /\
  lpk6_rel (LaxPacketHeaders.from_ethernet bs) (LaxCut.from_ethernet true bs).
Proof.
  intros Hok.
  unfold LaxPacketHeaders.from_ethernet, LaxCut.from_ethernet, LaxCut.parse_from_ethernet2,
    Ethernet2Header.from_slice, Ethernet2Slice.from_slice_without_fcs.
  set (s := mk_slice bs).
  pose proof (repr_whole bs) as R. fold s in R.
  pose proof (repr_len _ _ _ _ R) as Rl. rewrite N.sub_0_r in Rl.
  destruct (s_len s <? 14) eqn:E14.
  { unfold lerr, lhagree. cbn [bind]. split; [reflexivity|exact I]. }
  rewrite subU_eq by lia. cbn [bind]. rewrite idx_from_eq by lia. cbn [bind].
  unfold Ethernet2Header.ether_type, Ethernet2Slice.payload, Ethernet2Slice.ether_type,
    Ethernet2Slice.payload_slice.
  rewrite rd16_prefix by lia.
  destruct (rd16_ok s 12) as (et & Eet); [lia|]. rewrite Eet. cbn [bind].
  rewrite subN_ok by lia. cbn [bind]. rewrite subU_rest by lia. cbn [bind].
  set (eth := (fst s + 0, take 14 (drop 0 (snd s)))).
  set (rest := (fst s + 14, drop 14 (snd s))).
  set (ep := mkEtherPayload et LsSlice rest).
  set (c := mkLaxCursor (0 + Ethernet2Slice.header_len) LsSlice (LaxSlicedPacketCursor.with_link empty (LkEthernet2 s))).
  assert (Rr : repr bs rest 14 (len bs)).
  { destruct (repr_rest bs s 0 (len bs) 14 R ltac:(lia)) as (s' & Es' & Rs').
    rewrite N.sub_0_r, <- Rl in Es'. rewrite subU_rest in Es' by lia. injection Es' as <-. exact Rs'. }
  rewrite from_ether_type_slice_run. unfold LaxCut.slice_ether_type.
  set (st := mkLs (mkLH None [] None None (LHpEther (mkLaxEp false et LsSlice rest)) None) rest 0 et LsSlice).
  assert (P : lpk_rel 14 (lsp_link (lc_result c)) (l_run 5 st) (LaxCut.slice_ether_type_loop true 5 c ep)).
  { apply (lloop_agree N6_ip bs Hok 14 3 5 st c ep 14 (len bs)); [lia|reflexivity|].
    constructor; try reflexivity; try exact Rr.
    eexists. split.
    - unfold lconv_ether_payload. cbn [c lc_result LaxSlicedPacketCursor.with_link empty lsp_exts map last lsp_link].
      unfold Ethernet2Slice.payload, Ethernet2Slice.ether_type, Ethernet2Slice.payload_slice.
      rewrite Eet. cbn [bind]. rewrite subN_ok by lia. cbn [bind]. rewrite subU_rest by lia. cbn [bind].
      reflexivity.
    - reflexivity. }
  unfold lpk_rel in P. unfold lhagree.
  destruct (l_run 5 st) as [p|e|b]; destruct (LaxCut.slice_ether_type_loop true 5 c ep) as [sp|e'|b'];
    try contradiction; cbn [bind].
  destruct P as (Hl & Hlk & H6 & v & v' & Hv & Hc & Hx & Hn & Ht & Hp & Hs).
  split; [|intros hd x X; rewrite shift_stop_net in X; exact (H6 hd x X)].
  unfold LaxPacketHeaders.with_link.
  pose proof (lhview_of_link p v (Some (HlEthernet2 eth)) Hv) as Hv1.
  rewrite (shift_stop_view _ 14 _ Hv1).
  eexists. exists v'. split; [reflexivity|]. split; [exact Hc|].
  unfold lhv_rel. cbn [lhv_link lhv_exts lhv_net lhv_tr lhv_payload lhv_stop].
  split; [|tauto].
  rewrite (lconv_link_field _ _ Hc), Hlk. cbn [c lc_result LaxSlicedPacketCursor.with_link empty lsp_link lconv_link option_map lhview_link].
  unfold eth. rewrite win_sub by lia. unfold s_off. now rewrite N.add_0_r.
Qed.

Lemma conv_ext_stop_fix0 v4 e :
  conv_ext_stop v4 (fun l => fix_len l 0 LsSlice) e = conv_ext_stop v4 (fun l => l) e.
Proof. apply conv_ext_stop_ext. intros l. apply fix_len_id. Qed.

Lemma llockstep_ip (N6_ip : lip_sound) bs : bytes_ok bs -> F11 bs = false ->
  lhagree true (LaxPacketHeaders.from_ip bs) (LaxCut.from_ip true bs) /\
  lpk6_rel (LaxPacketHeaders.from_ip bs) (LaxCut.from_ip true bs).
Proof.
  intros Hok Hf. unfold LaxPacketHeaders.from_ip, LaxCut.from_ip, LaxCut.parse_from_ip, add_ip.
  set (s := mk_slice bs).
  pose proof (F11_false_len bs Hf) as Hf'. fold s in Hf'.
  pose proof (lax_ip_agree s Hok Hf') as A.
  destruct (LaxIpHeaders.from_slice_lax s) as [[[ih p] sth]|e|b] eqn:Eh;
    destruct (LaxCut.ip_from_slice true s) as [[i st']|e'|b'] eqn:Ec; try contradiction; cbn [bind];
    [|split; [exact A|exact I]].
  set (self := mkLH None [] None None (LHpUdp true (0, [])) None).
  set (c := mkLaxCursor 0 LsSlice empty).
  pose proof (lip_tail 0 c s self 0 ih p sth i st' eq_refl eq_refl eq_refl eq_refl eq_refl eq_refl
                eq_refl eq_refl A (N6_ip s _ _ _ _ _ Hok Eh Ec)) as T.
  cbv zeta in T. cbn [c lc_result lc_offset lc_src self lh_link lh_exts lh_transport lh_stop] in T.
  (* the cursor form of the slicing side is parse_from_ip's *)
  assert (Es : forall d,
    slice_transport
      (mkLaxCursor (0 + d) (if is_slice_src (lipp_src (LaxIpSlice.payload i)) then LsSlice
                            else lipp_src (LaxIpSlice.payload i))
         (with_opt_stop (with_net empty (net_of_ip i))
            (option_map (conv_ext_stop (is_v4 i) (fun l => fix_len l 0 LsSlice)) st')))
      (LaxIpSlice.payload i) =
    slice_transport
      (mkLaxCursor d LsSlice
         (mkLaxSliced None [] (Some (net_of_ip i)) None (option_map (conv_ext_stop (is_v4 i) (fun l => l)) st')))
      (LaxIpSlice.payload i)).
  { intros d. rewrite N.add_0_l. unfold slice_transport. cbn [lc_result lc_offset].
    destruct st' as [e0|]; cbn [option_map with_opt_stop]; rewrite ?conv_ext_stop_fix0; reflexivity. }
  pose proof A as (Ep & _ & _ & Hle & _). subst p.
  unfold ptr_diff in T |- *. rewrite subN_ok in T |- * by lia. cbn [bind] in T |- *.
  rewrite Es in T. clear Es.
  unfold lpk_rel in T. unfold lhagree.
  match type of T with match ?X with _ => _ end =>
    match goal with |- match ?Y with _ => _ end /\ _ => change Y with X end; destruct X as [r'|e|b] end;
    try contradiction.
  destruct (slice_transport _ _) as [sp|e'|b']; try contradiction.
  destruct T as (Hl & Hlk & H6 & v & v' & Hv & Hc & Hx & Hn & Ht & Hp & Hs).
  split; [|exact H6]. exists v, v'. split; [exact Hv|]. split; [exact Hc|].
  unfold lhv_rel. rewrite map_sh_stop_0 in Hs. split; [|tauto].
  rewrite (lconv_link_field _ _ Hc), Hlk. cbn.
  unfold lhview_of in Hv. rewrite Hl in Hv.
  destruct (match lh_net r' with Some n => _ | None => _ end); cbn [bind] in Hv; try discriminate.
  injection Hv as <-. reflexivity.
Qed.

End LaxLockstep.
Import LaxPacketHeaders.

Theorem lax_hdr_agree_ether_type et bs : bytes_ok bs ->
  lhagree true (LaxPacketHeaders.from_ether_type et bs) (LaxCut.from_ether_type true et bs).
Proof. intros Hok. now apply (llockstep_ether_type (fun _ _ _ => True)). Qed.

Theorem lax_hdr_agree_ethernet bs : bytes_ok bs ->
  lhagree true (LaxPacketHeaders.from_ethernet bs) (LaxCut.from_ethernet true bs).
Proof. intros Hok. now apply (llockstep_ethernet (fun _ _ _ => True)). Qed.

Theorem lax_hdr_agree_ip bs : bytes_ok bs -> F11 bs = false ->
  lhagree true (LaxPacketHeaders.from_ip bs) (LaxCut.from_ip true bs).
Proof. intros Hok Hf. now apply (llockstep_ip (fun _ _ _ => True)). Qed.

(* F11 at the bare-IP entry point: both families return Err, the records form an F11 pair *)
Theorem lax_hdr_f11_both_err bs : F11 bs = true ->
  exists e e', LaxPacketHeaders.from_ip bs = Err e /\
    (forall cut, LaxCut.from_ip cut bs = Err e') /\ LaxSlicedPacket.from_ip bs = Err e' /\
    f11_pair e e'.
Proof.
  intros Hf. destruct bs as [|b0 r]; [discriminate|]. unfold F11 in Hf.
  apply andb_prop in Hf. destruct Hf as (V4 & L20).
  set (s := mk_slice (b0 :: r)).
  assert (Hl : s_len s = len (b0 :: r)) by reflexivity.
  assert (Eb : rd (snd s) 0 = Some b0) by reflexivity.
  assert (V : N.shiftr b0 4 = 4) by lia.
  assert (L : s_len s < 20) by lia.
  destruct (lax_ip_f11 s b0 true Eb V L) as (e & e' & E1 & E2 & -> & He').
  destruct (lax_ip_f11 s b0 false Eb V L) as (e0 & e0' & _ & E2' & _ & He0').
  assert (Ee : e0' = e').
  { (* the error does not depend on `cut` *)
    revert E2 E2'. unfold LaxCut.ip_from_slice.
    destruct (s_len s =? 0); [congruence|]. unfold rdU. rewrite Eb. cbn [bind]. rewrite V.
    change (4 =? 4) with true. cbn iota.
    destruct (N.land b0 15 <? 5); [congruence|].
    congruence. }
  subst e0'.
  exists (ELen (mkLenError 20 (s_len s) LsSlice LyIpv4Header 0)), e'.
  split. { unfold LaxPacketHeaders.from_ip, add_ip. fold s. rewrite E1. reflexivity. }
  split. { intros [|]; unfold LaxCut.from_ip, LaxCut.parse_from_ip; fold s; [rewrite E2|rewrite E2']; reflexivity. }
  split. { rewrite <- lcut_false_from_ip. unfold LaxCut.from_ip, LaxCut.parse_from_ip. fold s. rewrite E2'. reflexivity. }
  exists (s_len s), 0. split; [exact L|]. split; [reflexivity|].
  destruct He' as [(i & Hi & ->)|(hl & Hhl & ->)]; [left; eauto|right; eauto].
Qed.

Theorem lax_hdr_eq_slices bs et : bytes_ok bs ->
  lhagree true (LaxPacketHeaders.from_ethernet bs) (LaxCut.from_ethernet true bs) /\
  lhagree true (LaxPacketHeaders.from_ether_type et bs) (LaxCut.from_ether_type true et bs) /\
  (F11 bs = false -> lhagree true (LaxPacketHeaders.from_ip bs) (LaxCut.from_ip true bs)) /\
  (F11 bs = true ->
     exists e e', LaxPacketHeaders.from_ip bs = Err e /\ LaxCut.from_ip true bs = Err e' /\
       LaxSlicedPacket.from_ip bs = Err e' /\ f11_pair e e').
Proof.
  intros Hok. split; [now apply lax_hdr_agree_ethernet|]. split; [now apply lax_hdr_agree_ether_type|].
  split; [now apply lax_hdr_agree_ip|].
  intros Hf. destruct (lax_hdr_f11_both_err bs Hf) as (e & e' & A & B & C & D).
  exists e, e'. auto.
Qed.

(* outside the F11 class (read off the LaxPacketHeaders result: stop error
   Len{required 20, len < 20, layer Ipv4Header} on the tag IpHeader) the stop errors are
   related without the F11 clause *)
Lemma f11_pair_stop eh es : f11_pair eh es -> f11_stop (Some (eh, LyIpHeader)) = true.
Proof.
  intros (n & off & Hn & -> & _). cbn. destruct (n <? 20) eqn:E; [reflexivity|lia].
Qed.

Lemma lhagree_strict h s : lhagree true h s -> lax_f11 h = false -> lhagree false h s.
Proof.
  unfold lhagree, lax_f11. destruct h as [p|e|b]; destruct s as [sp|e'|b']; auto.
  intros (v & v' & Hv & Hc & R) Hf. exists v, v'. split; [exact Hv|]. split; [exact Hc|].
  destruct R as (R1 & R2 & R3 & R4 & R5 & R6). repeat (split; [assumption|]).
  assert (Es : lhv_stop v = lh_stop p).
  { unfold lhview_of in Hv. destruct (match lh_net p with Some n => _ | None => _ end); cbn [bind] in Hv;
      try discriminate. injection Hv as <-. reflexivity. }
  rewrite Es in *. unfold stop_rel in *.
  destruct (lh_stop p) as [[eh ly]|]; destruct (lhv_stop v') as [[es ly']|]; auto.
  destruct R6 as (-> & [R6|(_ & -> & R6)]); split; auto.
  exfalso. apply f11_pair_stop in R6. exact (Bool.eq_true_false_abs _ R6 Hf).
Qed.

Lemma lhagree_or_exception f h c s :
  lhagree f h c -> (lax_stopped_at_ext c = false -> (forall b, c <> Bug b) -> c = s) ->
  lhagree f h s \/ (lax_stopped_at_ext c = true /\ lhagree f h c).
Proof.
  intros A Hc. destruct (lax_stopped_at_ext c) eqn:E; [right; auto|left].
  rewrite <- Hc; auto. intros b ->. unfold lhagree in A. destruct h; contradiction.
Qed.

Theorem lax_hdr_eq_slices_or_exception bs et : bytes_ok bs ->
  (lhagree true (LaxPacketHeaders.from_ethernet bs) (LaxSlicedPacket.from_ethernet bs) \/
   (lax_stopped_at_ext (LaxCut.from_ethernet true bs) = true /\
    lhagree true (LaxPacketHeaders.from_ethernet bs) (LaxCut.from_ethernet true bs))) /\
  (lhagree true (LaxPacketHeaders.from_ether_type et bs) (LaxSlicedPacket.from_ether_type et bs) \/
   (lax_stopped_at_ext (LaxCut.from_ether_type true et bs) = true /\
    lhagree true (LaxPacketHeaders.from_ether_type et bs) (LaxCut.from_ether_type true et bs))) /\
  (F11 bs = false ->
   lhagree true (LaxPacketHeaders.from_ip bs) (LaxSlicedPacket.from_ip bs) \/
   (lax_stopped_at_ext (LaxCut.from_ip true bs) = true /\
    lhagree true (LaxPacketHeaders.from_ip bs) (LaxCut.from_ip true bs))).
Proof.
  intros Hok. split; [|split].
  - apply lhagree_or_exception; [now apply lax_hdr_agree_ethernet|apply lcut_only_when_stopped_ethernet].
  - apply lhagree_or_exception; [now apply lax_hdr_agree_ether_type|apply lcut_only_when_stopped_ether_type].
  - intros Hf. apply lhagree_or_exception; [now apply lax_hdr_agree_ip|apply lcut_only_when_stopped_ip].
Qed.

Lemma lhagree_nobug f h s b : lhagree f h s -> h <> Bug b /\ lhvres_of_h h <> LHBug b.
Proof.
  unfold lhagree. destruct h as [p|e|b0]; destruct s as [sp|e'|b']; try contradiction.
  - intros (v & v' & Hv & _). split; [discriminate|]. cbn. rewrite Hv. discriminate.
  - intros _. split; discriminate.
Qed.

Theorem lax_hdr_never_bug bs et b : bytes_ok bs ->
  (LaxPacketHeaders.from_ethernet bs <> Bug b /\ LaxPacketHeaders.from_ether_type et bs <> Bug b /\
   LaxPacketHeaders.from_ip bs <> Bug b) /\
  (lhvres_of_h (LaxPacketHeaders.from_ethernet bs) <> LHBug b /\
   lhvres_of_h (LaxPacketHeaders.from_ether_type et bs) <> LHBug b /\
   lhvres_of_h (LaxPacketHeaders.from_ip bs) <> LHBug b).
Proof.
  intros Hok.
  destruct (lhagree_nobug _ _ _ b (lax_hdr_agree_ethernet bs Hok)) as (A1 & A2).
  destruct (lhagree_nobug _ _ _ b (lax_hdr_agree_ether_type et bs Hok)) as (B1 & B2).
  assert (C : LaxPacketHeaders.from_ip bs <> Bug b /\ lhvres_of_h (LaxPacketHeaders.from_ip bs) <> LHBug b).
  { destruct (F11 bs) eqn:Hf.
    - destruct (lax_hdr_f11_both_err bs Hf) as (e & e' & -> & _). split; discriminate.
    - exact (lhagree_nobug _ _ _ b (lax_hdr_agree_ip bs Hok Hf)). }
  destruct C as (C1 & C2). repeat split; assumption.
Qed.
