(* Parse/FaultGeometry.v -- the GEOMETRY of the length errors of the strict reference decoder,
   read off the instrumented decoder `pwire_*` of Parse/LaxWire.v (forget pwire = wire:
   LaxPrefix.pwire_sound).  `pwire_X bs = PRej q (ELen e)`
   hands back the layers q decoded in front of the fault; `cur_window start q` is the data window
   those layers leave for the next layer (payload of the last link extension / of the link header /
   of the IP layer), computed from q alone.  Theorem: the fault lies AT the start of that window and
   `len` is the length of that window (or the failing header's own length field: IPv4 total length
   smaller than the header, UDP length smaller than 8); for a fault inside the network layer
   (authentication header, IPv6 extension chain) it lies INSIDE the window: start <= offset and
   offset + len <= end.  This gives "true offset" and "really available" a reading that is
   independent of the error record of WireSpec.v: positions come from the windows of q.
   Stated for the Ethernet II, ether type and IP entry points; the Linux SLL entry is left out. *)
From EP Require Import Base.Bytes Parse.Types Parse.View Parse.WireSpec Parse.WireSpecFacts
  Parse.WireNested Parse.LaxWire.
From Coq Require Import ZArith Lia ZifyN ZifyBool List.
Import ListNotations.

Local Open Scope N_scope.

Definition ext_rest (x : vlink_ext) : option window :=
  match x with
  | VVlan (o, l) => Some (o + 4, l - 4)
  | VMacsec _ (VMpUnmodified e) => Some (vep_win e)
  | VMacsec _ (VMpModified _) => None
  end.

Definition cur_window (start : window) (q : vpacket) : option window :=
  match v_net q with
  | Some (VIpv4 _ _ ip) => Some (vip_win ip)
  | Some (VIpv6 _ _ _ _ ip) => Some (vip_win ip)
  | Some (VArp _) => None
  | None =>
      match last (map Some (v_exts q)) None with
      | None => Some start
      | Some x => ext_rest x
      end
  end.

(* faults of a header INSIDE the network layer *)
Definition inner_net (e : len_error) : bool :=
  match le_layer e with
  | LyIpAuthHeader | LyIpv6ExtHeader | LyIpv6FragHeader => true
  | _ => false
  end.

Definition at_window (bs : bytes) (w : window) (e : len_error) : Prop :=
  le_off e = fst w /\
  (le_len e = snd w \/
   (le_layer e = LyIpv4Packet /\ le_src e = LsIpv4HeaderTotalLen /\ le_len e = W bs (fst w + 2)) \/
   (le_layer e = LyUdpHeader /\ le_src e = LsUdpHeaderLen /\ le_len e = W bs (fst w + 4))).

Definition in_window (w : window) (e : len_error) : Prop :=
  fst w <= le_off e /\ le_off e + le_len e <= fst w + snd w.

Definition located (bs : bytes) (start : window) (q : vpacket) (e : len_error) : Prop :=
  exists w, cur_window start q = Some w /\ fst w + snd w <= len bs /\
    (inner_net e = false -> at_window bs w e) /\
    (inner_net e = true -> in_window w e).

Ltac crack :=
  repeat match goal with
         | |- context [if ?c then _ else _] => let E := fresh "E" in destruct c eqn:E
         end.

Section Geo.
  Variable bs : bytes.
  Variable start : window.

  Lemma transport_geo p ipn frag src pos lim e :
    wire_transport bs p ipn frag src pos lim = VErr (ELen e) ->
    inner_net e = false /\ at_window bs (pos, lim - pos) e.
  Proof.
    unfold wire_transport, wire_icmp4, wire_udp, wire_tcp, wire_icmp6, cut, bad, at_window, inner_net.
    cbv zeta. crack; intros H; try discriminate; injection H as <-; cbn; auto 8.
  Qed.

  Lemma arp_geo p src pos lim e :
    wire_arp bs p src pos lim = VErr (ELen e) -> inner_net e = false /\ at_window bs (pos, lim - pos) e.
  Proof.
    unfold wire_arp, cut, at_window, inner_net. cbv zeta.
    crack; intros H; try discriminate; injection H as <-; cbn; auto.
  Qed.

  Lemma hdr_fault_geo src pos lim e :
    pos <= lim -> hdr_fault bs src pos lim (VErr (ELen e)) ->
    inner_net e = true /\ pos <= le_off e /\ le_off e + le_len e <= lim.
  Proof.
    intros Hle (o & req & ly & [= ->] & Ho & Hl & _ & Hs). specialize (Hl Hle).
    unfold inner_net. cbn [le_layer le_off le_len].
    split; [destruct Hs as [(-> & _)|[(-> & _)|(-> & _)]]; reflexivity|lia].
  Qed.

  (* the current window of p is [pos, lim) *)
  Definition here (p : vpacket) (pos lim : N) : Prop :=
    v_net p = None /\ cur_window start p = Some (pos, lim - pos) /\ pos <= lim /\ lim <= len bs.

  Lemma located_here p pos lim e :
    here p pos lim -> inner_net e = false -> at_window bs (pos, lim - pos) e -> located bs start p e.
  Proof.
    intros (_ & Hc & Hp & Hl) Hi Ha. exists (pos, lim - pos). split; [exact Hc|].
    split; [cbn; lia|]. split; [auto|]. rewrite Hi. discriminate.
  Qed.

  Lemma located_inner p pos lim e :
    here p pos lim -> inner_net e = true -> pos <= le_off e -> le_off e + le_len e <= lim ->
    located bs start p e.
  Proof.
    intros (_ & Hc & Hp & Hl) Hi H1 H2. exists (pos, lim - pos). split; [exact Hc|].
    split; [cbn; lia|]. split; [rewrite Hi; discriminate|]. intros _. split; cbn; lia.
  Qed.

  Lemma located_transport p n ip ipn frag src ppos lim' e :
    v_net (with_net p n) = Some n ->
    (n = VIpv4 (fst (vip_win ip), 0) None ip \/ True) ->
    cur_window start (with_net p n) = Some (ppos, lim' - ppos) -> ppos <= lim' -> lim' <= len bs ->
    wire_transport bs (with_net p n) ipn frag src ppos lim' = VErr (ELen e) ->
    located bs start (with_net p n) e.
  Proof.
    intros _ _ Hc Hp Hl H. destruct (transport_geo _ _ _ _ _ _ _ H) as (Hi & Ha).
    exists (ppos, lim' - ppos). split; [exact Hc|]. split; [cbn; lia|]. split; [auto|].
    rewrite Hi. discriminate.
  Qed.

  Lemma pres_of_rej p r q e : pres_of p r = PRej q e -> q = p /\ r = VErr e.
  Proof. destruct r; cbn; intros H; try discriminate. injection H as <- <-. auto. Qed.

  Lemma ptransport_geo p n ipn frag src ppos lim' q e :
    cur_window start (with_net p n) = Some (ppos, lim' - ppos) -> ppos <= lim' -> lim' <= len bs ->
    pwire_transport bs (with_net p n) ipn frag src ppos lim' = PRej q (ELen e) ->
    located bs start q e.
  Proof.
    intros Hc Hp Hl H. unfold pwire_transport in H. apply pres_of_rej in H. destruct H as (-> & H).
    destruct (transport_geo _ _ _ _ _ _ _ H) as (Hi & Ha).
    exists (ppos, lim' - ppos). split; [exact Hc|]. split; [cbn; lia|]. split; [auto|].
    rewrite Hi. discriminate.
  Qed.

  Lemma ipv4_tail_geo p pos hl lim' lim q e :
    here p pos lim -> pos + hl <= lim' -> lim' <= lim ->
    pwire_ipv4_tail bs p pos hl lim' = PRej q (ELen e) -> located bs start q e.
  Proof.
    intros Hh Hhl Hl'. pose proof Hh as (_ & _ & Hp & Hl). unfold pwire_ipv4_tail. cbv zeta.
    destruct (B bs (pos + 9) =? 51).
    - destruct (wire_ah bs CeAuthZeroPayloadLen LsIpv4HeaderTotalLen (pos + hl) lim') as [l nx|r] eqn:Ea.
      + apply wire_ah_iff in Ea. apply ptransport_geo; [reflexivity|lia|lia].
      + intros H. apply pres_of_rej in H. destruct H as (-> & ->).
        apply wire_ah_fault in Ea. destruct Ea as [Ea|Ea]; [discriminate|].
        destruct (hdr_fault_geo _ _ _ _ Hhl Ea) as (A & B' & C).
        apply (located_inner p pos lim e Hh A); lia.
    - apply ptransport_geo; [reflexivity|lia|lia].
  Qed.

  Lemma ipv4_body_geo p src pos lim hl q e :
    here p pos lim -> hl <= lim - pos ->
    pwire_ipv4_body bs p src pos lim hl = PRej q (ELen e) -> located bs start q e.
  Proof.
    intros Hh Hhl. pose proof Hh as (_ & _ & Hp & Hl). unfold pwire_ipv4_body. cbv zeta.
    destruct (W bs (pos + 2) <? hl) eqn:E1.
    { intros H. injection H as <- <-. apply (located_here p pos lim _ Hh); [reflexivity|].
      split; [reflexivity|]. right. left. cbn. auto. }
    destruct (lim - pos <? W bs (pos + 2)) eqn:E2.
    { intros H. injection H as <- <-. apply (located_here p pos lim _ Hh); [reflexivity|].
      split; [reflexivity|]. left. reflexivity. }
    apply (ipv4_tail_geo p pos hl (pos + W bs (pos + 2)) lim q e Hh); lia.
  Qed.

  Lemma ipv6_tail_geo p esrc psrc pos lim' lim q e :
    here p pos lim -> pos + 40 <= lim' -> lim' <= lim ->
    pwire_ipv6_tail bs p esrc psrc pos lim' = PRej q (ELen e) -> located bs start q e.
  Proof.
    intros Hh H40 Hl'. pose proof Hh as (_ & _ & Hp & Hl). unfold pwire_ipv6_tail.
    destruct (wire_exts bs (S (N.to_nat (lim' - (pos + 40)))) esrc (pos + 40) lim' (B bs (pos + 6)))
      as [e' nx fr|r] eqn:Ec.
    - apply wire_exts_bounds in Ec; [|exact H40]. apply ptransport_geo; [reflexivity|lia|lia].
    - intros H. apply pres_of_rej in H. destruct H as (-> & ->).
      apply wire_exts_fault in Ec. destruct Ec as [Ec|[Ec|[Ec|Ec]]]; try discriminate.
      destruct (hdr_fault_geo _ _ _ _ H40 Ec) as (A & B' & C).
      apply (located_inner p pos lim e Hh A); lia.
  Qed.

  Lemma ipv6_body_geo p src pos lim q e :
    here p pos lim -> 40 <= lim - pos ->
    pwire_ipv6_body bs p src pos lim = PRej q (ELen e) -> located bs start q e.
  Proof.
    intros Hh H40. pose proof Hh as (_ & _ & Hp & Hl). unfold pwire_ipv6_body. cbv zeta.
    destruct ((W bs (pos + 4) =? 0) && (40 <? lim - pos)) eqn:E1.
    { apply (ipv6_tail_geo p _ _ pos lim lim q e Hh); lia. }
    destruct (lim - pos <? 40 + W bs (pos + 4)) eqn:E2.
    { intros H. injection H as <- <-. apply (located_here p pos lim _ Hh); [reflexivity|].
      split; [reflexivity|]. left. reflexivity. }
    apply (ipv6_tail_geo p _ _ pos (pos + 40 + W bs (pos + 4)) lim q e Hh); lia.
  Qed.

  Ltac direct Hh :=
    let H := fresh in
    intros H; injection H as <- <-;
    apply (located_here _ _ _ _ Hh); [reflexivity|]; split; [reflexivity|left; reflexivity].

  Lemma ip_geo p src pos lim q e :
    here p pos lim -> pwire_ip bs p src pos lim = PRej q (ELen e) -> located bs start q e.
  Proof.
    intros Hh. pose proof Hh as (_ & _ & Hp & Hl). unfold pwire_ip. cbv zeta.
    destruct (lim - pos =? 0) eqn:E0; [direct Hh|].
    destruct (B bs pos / 16 =? 4).
    { destruct (B bs pos mod 16 <? 5); [discriminate|].
      destruct (lim - pos <? B bs pos mod 16 * 4) eqn:E1; [direct Hh|].
      apply (ipv4_body_geo p src pos lim _ q e Hh). lia. }
    destruct (B bs pos / 16 =? 6); [|discriminate].
    destruct (lim - pos <? 40) eqn:E1; [direct Hh|].
    apply (ipv6_body_geo p src pos lim q e Hh). lia.
  Qed.

  Lemma net_geo p et src pos lim q e :
    here p pos lim -> pwire_net bs p et src pos lim = PRej q (ELen e) -> located bs start q e.
  Proof.
    intros Hh. pose proof Hh as (_ & _ & Hp & Hl). unfold pwire_net.
    destruct (et =? 2054).
    { intros H. apply pres_of_rej in H. destruct H as (-> & H).
      destruct (arp_geo _ _ _ _ _ H) as (Hi & Ha). exact (located_here _ _ _ _ Hh Hi Ha). }
    destruct (et =? 2048).
    { unfold pwire_ipv4. cbv zeta.
      destruct (lim - pos <? 20) eqn:E1; [direct Hh|].
      destruct (negb (B bs pos / 16 =? 4)); [discriminate|].
      destruct (B bs pos mod 16 <? 5); [discriminate|].
      destruct (lim - pos <? B bs pos mod 16 * 4) eqn:E2; [direct Hh|].
      apply (ipv4_body_geo p src pos lim _ q e Hh). lia. }
    destruct (et =? 34525); [|discriminate].
    unfold pwire_ipv6. cbv zeta.
    destruct (lim - pos <? 40) eqn:E1; [direct Hh|].
    destruct (negb (B bs pos / 16 =? 6)); [discriminate|].
    apply (ipv6_body_geo p src pos lim q e Hh). lia.
  Qed.

  Lemma here_with_ext p x pos lim pos' lim' :
    here p pos lim -> ext_rest x = Some (pos', lim' - pos') -> pos' <= lim' -> lim' <= len bs ->
    here (with_ext p x) pos' lim'.
  Proof.
    intros (Hn & _ & _ & _) Hx Hp Hl. unfold here, cur_window, with_ext. cbn [v_net v_exts].
    rewrite Hn. rewrite map_app. cbn [map]. rewrite last_last. auto.
  Qed.

  Lemma ether_geo : forall cap p et src pos lim q e,
    here p pos lim -> pwire_ether bs cap p et src pos lim = PRej q (ELen e) -> located bs start q e.
  Proof.
    induction cap as [|c IH]; intros p et src pos lim q e Hh; cbn [pwire_ether]; cbv zeta.
    { destruct (is_vlan et); [discriminate|]. destruct (et =? 35045); [discriminate|now apply net_geo]. }
    pose proof Hh as (_ & _ & Hp & Hl).
    destruct (is_vlan et).
    { destruct (lim - pos <? 4) eqn:E1; [direct Hh|].
      apply IH. apply (here_with_ext p _ pos lim _ _ Hh); [|lia|lia]. cbn. f_equal. f_equal. lia. }
    destruct (et =? 35045); [|now apply net_geo].
    set (unmod := (B bs pos / 4) mod 4 =? 0).
    set (sc := negb ((B bs pos / 32) mod 2 =? 0)).
    set (sl := B bs (pos + 1) mod 64).
    set (hl := 6 + (if unmod then 2 else 0) + (if sc then 8 else 0)).
    set (body := if unmod then sl - 2 else sl).
    clearbody body hl sl sc unmod.
    destruct (lim - pos <? 6) eqn:E1; [direct Hh|].
    destruct (128 <=? B bs pos); [discriminate|].
    destruct (unmod && (sl =? 1)); [discriminate|].
    destruct (lim - pos <? hl) eqn:E2; [direct Hh|].
    destruct ((0 <? sl) && (lim - pos <? hl + body)) eqn:E3; [direct Hh|].
    destruct unmod; [|discriminate].
    apply IH. apply (here_with_ext p _ pos lim _ _ Hh).
    - cbn. f_equal.
    - destruct (0 <? sl); lia.
    - destruct (0 <? sl) eqn:Es; [|lia]. cbn [andb] in E3. lia.
  Qed.
End Geo.

Lemma here_start bs start p :
  v_net p = None -> v_exts p = [] -> fst start + snd start <= len bs ->
  here bs start p (fst start) (fst start + snd start).
Proof.
  intros Hn Hx Hl. unfold here, cur_window. rewrite Hn, Hx. cbn.
  replace (fst start + snd start - fst start) with (snd start) by lia.
  destruct start. repeat split; auto. cbn. lia.
Qed.

Theorem pwire_fault_geometry bs et q e :
  (14 <= len bs -> pwire_ethernet bs = PRej q (ELen e) -> located bs (14, len bs - 14) q e) /\
  (pwire_ether_type bs et = PRej q (ELen e) -> located bs (0, len bs) q e) /\
  (pwire_from_ip bs = PRej q (ELen e) -> located bs (0, len bs) q e).
Proof.
  split; [|split].
  - intros H14. unfold pwire_ethernet, n_bs. destruct (len bs <? 14) eqn:E; [lia|].
    apply ether_geo.
    pose proof (here_start bs (14, len bs - 14)
                  (mkVPacket (Some (VEthernet2 (0, len bs))) [] None None) eq_refl eq_refl) as H.
    cbn [fst snd] in H. replace (14 + (len bs - 14)) with (len bs) in H by lia. apply H. lia.
  - unfold pwire_ether_type, n_bs. apply ether_geo.
    pose proof (here_start bs (0, len bs)
                  (mkVPacket (Some (VEtherPayload (mkVEp et LsSlice (0, len bs)))) [] None None)
                  eq_refl eq_refl) as H.
    cbn [fst snd] in H. rewrite N.add_0_l in H. apply H. lia.
  - unfold pwire_from_ip, n_bs. apply ip_geo.
    pose proof (here_start bs (0, len bs) empty_packet eq_refl eq_refl) as H.
    cbn [fst snd] in H. rewrite N.add_0_l in H. apply H. lia.
Qed.

(* transfer to the model of SlicedPacket, through forget pwire = wire and the C07 relation *)
From EP Require Import Parse.Cursor Parse.StrictProofs Parse.LaxPrefix.

Lemma forget_rej pw e : forget pw = VErr e -> exists q, pw = PRej q e.
Proof. destruct pw; cbn; intros H; try discriminate. injection H as ->. eauto. Qed.

Definition same_place (e se : len_error) : Prop :=
  le_layer e = le_layer se /\ le_off e = le_off se /\ le_len e = le_len se /\
  le_required e = le_required se.

Lemma geo_transfer bs start (r : res sliced_packet) pw w e :
  c07_truthful (vres_of r) w -> forget pw = w ->
  (forall q se, pw = PRej q (ELen se) -> located bs start q se) ->
  r = Err (ELen e) ->
  exists q se, pw = PRej q (ELen se) /\ same_place e se /\ located bs start q se.
Proof.
  intros T Fg G ->. cbn in T. destruct T as (se & Ew & A & B' & C & D & _).
  rewrite Ew in Fg. destruct (forget_rej pw _ Fg) as (q & Eq).
  exists q, se. split; [exact Eq|]. split; [repeat split; auto|]. now apply G.
Qed.

Theorem strict_fault_geometry bs et e : bytes_ok bs ->
  (14 <= len bs -> SlicedPacket.from_ethernet bs = Err (ELen e) ->
   exists q se, pwire_ethernet bs = PRej q (ELen se) /\ same_place e se /\
                located bs (14, len bs - 14) q se) /\
  (SlicedPacket.from_ether_type et bs = Err (ELen e) ->
   exists q se, pwire_ether_type bs et = PRej q (ELen se) /\ same_place e se /\
                located bs (0, len bs) q se) /\
  (SlicedPacket.from_ip bs = Err (ELen e) ->
   exists q se, pwire_from_ip bs = PRej q (ELen se) /\ same_place e se /\
                located bs (0, len bs) q se).
Proof.
  intros Hok. destruct (pwire_sound bs et) as (S1 & S2 & S3). split; [|split].
  - intros H14. apply (geo_transfer bs _ _ _ _ e (res_rel_c07 _ _ (from_ethernet_rel bs Hok)) S1).
    intros q se. apply (proj1 (pwire_fault_geometry bs et q se) H14).
  - apply (geo_transfer bs _ _ _ _ e (res_rel_c07 _ _ (from_ether_type_rel bs et Hok)) S2).
    intros q se. apply (proj1 (proj2 (pwire_fault_geometry bs et q se))).
  - apply (geo_transfer bs _ _ _ _ e (res_rel_c07 _ _ (from_ip_rel bs Hok)) S3).
    intros q se. apply (proj2 (proj2 (pwire_fault_geometry bs et q se))).
Qed.
