(* Parse/LaxSecTag.v -- the decoding of one MACsec SecTAG at [pos, lim).  The reference
   decoders (wire_ether, pwire_ether, pwire2_ether, lwire_ether; pwire3_ether in
   Parse/LaxPrefixResumed.v) all perform it with the same text; here it is a function of its
   own with a three-way verdict (`sectag_dec`), and the MACsec arm of each of these decoders
   is proved to be a match on that verdict (`*_ether_macsec`). *)
From EP Require Import Base.Bytes Parse.Types Parse.View Parse.WireSpec Parse.WireSpecFacts Parse.LaxView
  Parse.LaxWire Parse.LaxWire2.
From Coq Require Import ZArith Lia.
Local Open Scope N_scope.

Inductive sectag :=
| StShort (req : N)                 (* fewer than the `req` octets of the SecTAG are there *)
| StBad (c : content_error)
| StOk (hl body : N) (unmod has_sl inc : bool).
    (* SecTAG of `hl` octets; `has_sl`: the short length is given and promises `body` octets;
       `inc`: it promises more than [pos + hl, lim) holds *)

Definition sectag_dec (bs : bytes) (pos lim : N) : sectag :=
  let a := lim - pos in
  let tci := B bs pos in
  let sl := B bs (pos + 1) mod 64 in
  if a <? 6 then StShort 6
  else if 128 <=? tci then StBad CeMacsecVersion
  else if ((tci / 4) mod 4 =? 0) && (sl =? 1) then StBad CeMacsecUnmodifiedShortLen
  else if a <? macsec_hl tci then StShort (macsec_hl tci)
  else StOk (macsec_hl tci) (macsec_body tci sl) ((tci / 4) mod 4 =? 0) (0 <? sl)
         ((0 <? sl) && (a <? macsec_hl tci + macsec_body tci sl)).

Lemma sectag_ok bs pos lim hl body unmod has_sl inc :
  sectag_dec bs pos lim = StOk hl body unmod has_sl inc ->
  hl = macsec_hl (B bs pos) /\ unmod = ((B bs pos / 4) mod 4 =? 0) /\ 6 <= hl <= lim - pos /\
  body = macsec_body (B bs pos) (B bs (pos + 1) mod 64) /\ has_sl = (0 <? B bs (pos + 1) mod 64) /\
  (((B bs pos / 4) mod 4 =? 0) && (B bs (pos + 1) mod 64 =? 1)) = false /\
  inc = has_sl && (lim - pos <? hl + body).
Proof.
  unfold sectag_dec. pose proof (macsec_hl_bounds (B bs pos)) as Hb.
  destruct (lim - pos <? 6); [discriminate|].
  destruct (128 <=? B bs pos); [discriminate|].
  destruct (((B bs pos / 4) mod 4 =? 0) && (B bs (pos + 1) mod 64 =? 1)); [discriminate|].
  destruct (lim - pos <? macsec_hl (B bs pos)) eqn:Eh; [discriminate|].
  intros E. injection E as <- <- <- <- <-. repeat split; lia.
Qed.

(* the MACsec arm of the lax reference decoder *)
Lemma lwire_ether_macsec bs c p csrc pos lim :
  lwire_ether bs (S c) p 35045 csrc pos lim =
  match sectag_dec bs pos lim with
  | StShort req => lcut p req (lim - pos) LsSlice LyMacsecHeader pos LyMacsecHeader
  | StBad ce => lstop p (EContent ce, LyMacsecHeader)
  | StOk hl body unmod has_sl inc =>
      let short := has_sl && negb inc in
      let lim' := if short then pos + hl + body else lim in
      let psrc := if short then LsMacsecShortLength else LsSlice in
      let pw := (pos + hl, lim' - (pos + hl)) in
      if unmod then
        lwire_ether bs c
          (lwith_ext p (LVMacsec (pos, hl) (LVMpUnmodified (mkLVEp inc (W bs (pos + hl - 2)) psrc pw))))
          (W bs (pos + hl - 2)) (pick_src psrc csrc) (pos + hl) lim'
      else lwith_ext p (LVMacsec (pos, hl) (LVMpModified inc pw))
  end.
Proof.
  cbn [lwire_ether]. change (is_vlan 35045) with false. change (35045 =? 35045) with true. cbv iota zeta.
  unfold sectag_dec.
  destruct (lim - pos <? 6); [reflexivity|].
  destruct (128 <=? B bs pos); [reflexivity|].
  fold (macsec_hl (B bs pos)). fold (macsec_body (B bs pos) (B bs (pos + 1) mod 64)).
  destruct (((B bs pos / 4) mod 4 =? 0) && (B bs (pos + 1) mod 64 =? 1)); [reflexivity|].
  destruct (lim - pos <? macsec_hl (B bs pos)); [reflexivity|].
  destruct (0 <? B bs (pos + 1) mod 64); [|reflexivity].
  reflexivity.
Qed.

(* The MACsec arm of the strict reference decoders (wire_ether and its instrumented variants
   pwire_ether, pwire2_ether, pwire3_ether): they differ only in how they reject (`rej`), in what
   they do when the short length promises more than is there (`short`, which is handed the
   decoding resumed on the data that is there), in the recursive call (`next`) and in how they
   accept (`acc`). *)
Definition sectag_strict {R} (bs : bytes) (p : vpacket) (src : len_source) (pos lim : N)
  (rej : slice_error -> R) (short : slice_error -> R -> R)
  (next : vpacket -> N -> len_source -> N -> N -> R) (acc : vpacket -> R) : R :=
  match sectag_dec bs pos lim with
  | StShort req => rej (ELen (mkLenError req (lim - pos) src LyMacsecHeader pos))
  | StBad ce => rej (EContent ce)
  | StOk hl body unmod has_sl inc =>
      let go (has_sl : bool) :=
        let lim' := if has_sl then pos + hl + body else lim in
        let psrc := if has_sl then LsMacsecShortLength else LsSlice in
        let pw := (pos + hl, lim' - (pos + hl)) in
        if unmod then
          next (with_ext p (VMacsec (pos, hl) (VMpUnmodified (mkVEp (W bs (pos + hl - 2)) psrc pw))))
            (W bs (pos + hl - 2)) (if has_sl then LsMacsecShortLength else src) (pos + hl) lim'
        else acc (with_ext p (VMacsec (pos, hl) (VMpModified pw))) in
      if inc then short (ELen (mkLenError (hl + body) (lim - pos) src LyMacsecPacket pos)) (go false)
      else go has_sl
  end.

(* unfolds a decoder at ether type 35045 and walks the SecTAG ladder beside sectag_dec *)
Ltac macsec_arm :=
  change (is_vlan 35045) with false; change (35045 =? 35045) with true; cbv iota zeta;
  unfold sectag_strict, sectag_dec, cut, bad;
  destruct (_ - _ <? 6); [reflexivity|];
  destruct (128 <=? _); [reflexivity|];
  match goal with |- context[WireSpec.B ?bs ?pos / 4] =>
    fold (macsec_hl (WireSpec.B bs pos));
    fold (macsec_body (WireSpec.B bs pos) (WireSpec.B bs (pos + 1) mod 64))
  end;
  destruct (_ && (_ =? 1)); [reflexivity|];
  destruct (_ - _ <? macsec_hl _); reflexivity.

Lemma wire_ether_macsec bs c p src pos lim :
  wire_ether bs (S c) p 35045 src pos lim =
  sectag_strict bs p src pos lim VErr (fun e _ => VErr e) (wire_ether bs c) VOk.
Proof. cbn [wire_ether]. macsec_arm. Qed.

Lemma pwire_ether_macsec bs c p src pos lim :
  pwire_ether bs (S c) p 35045 src pos lim =
  sectag_strict bs p src pos lim (PRej p) (fun e _ => PRej p e) (pwire_ether bs c) PAcc.
Proof. cbn [pwire_ether]. macsec_arm. Qed.

Lemma pwire2_ether_macsec bs c p src pos lim :
  pwire2_ether bs (S c) p 35045 src pos lim =
  sectag_strict bs p src pos lim (P2Rej p) (fun e _ => P2Rej p e) (pwire2_ether bs c) P2Acc.
Proof. cbn [pwire2_ether]. macsec_arm. Qed.

(* a map f between the result types of two such decoders commutes with the arm *)
Lemma sectag_strict_map {R R'} (f : R -> R') bs p src pos lim rej short next acc rej' short' next' acc' :
  (forall e, f (rej e) = rej' e) ->
  (forall req a r, f (short (ELen (mkLenError req a src LyMacsecPacket pos)) r)
                   = short' (ELen (mkLenError req a src LyMacsecPacket pos)) (f r)) ->
  (forall q et s a b, f (next q et s a b) = next' q et s a b) ->
  (forall q, f (acc q) = acc' q) ->
  f (sectag_strict bs p src pos lim rej short next acc)
  = sectag_strict bs p src pos lim rej' short' next' acc'.
Proof.
  intros Hr Hs Hn Ha. unfold sectag_strict.
  destruct (sectag_dec bs pos lim) as [req|ce|hl body unmod has_sl inc]; [apply Hr|apply Hr|].
  cbv zeta. destruct inc; [rewrite Hs|]; destruct unmod; now rewrite ?Hn, ?Ha.
Qed.

(* the content errors of the verdict *)
Lemma sectag_bad bs pos lim c :
  sectag_dec bs pos lim = StBad c -> c = CeMacsecVersion \/ c = CeMacsecUnmodifiedShortLen.
Proof.
  unfold sectag_dec. destruct (lim - pos <? 6); [discriminate|].
  destruct (128 <=? B bs pos); [intros [= <-]; now left|].
  destruct (_ && _); [intros [= <-]; now right|].
  destruct (lim - pos <? _); discriminate.
Qed.
