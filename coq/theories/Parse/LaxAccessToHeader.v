(* Parse/LaxAccessToHeader.v -- IpSlice::to_header (net/ip_slice.rs) never fails on an
   IpSlice / Ipv4Slice / Ipv6Slice produced by the strict from_slice.

   The IPv6 arm re-decodes the stored extension window `s.extensions().slice()` with
   the STRUCT decoder Ipv6Extensions::from_slice (model: HdrModel.Ipv6Extensions) and
   `expect`s Ok.  The argument:
     1. the slice walker accepts the window it stored: running
        Ipv6ExtensionsSlice::from_slice again on the consumed prefix succeeds
        (exts_trunc: every header it validated is complete inside the prefix, and the
        walk ends at the same non-extension number with an EMPTY rest);
     2. the struct decoder runs in lockstep with the slice walker cut at the first
        refilled header (C04: HdrProofs2.exts_agree), and the cut walker differs from
        the plain walker only by stopping early with Ok (HdrProofs.dich_exts);
     hence the struct decoder returns Ok (possibly having stopped early at a refilled
     header -- to_header then silently drops the remaining headers, it never errs). *)
From EP Require Import Base.Bytes Parse.Types Parse.Slices Parse.Cursor Parse.Repr
  Parse.Access Parse.AccessProofs Parse.LaxAccess.
From EP Require Parse.HdrModel Parse.HdrCut Parse.HdrProofs Parse.HdrProofs2.
From Coq Require Import ZArith Lia ZifyN ZifyBool.

Local Open Scope N_scope.

(* a header validated in W is validated in every prefix of W that contains it *)
Lemma rd_pre u I W i b : pre u I W -> i < u -> rdU W i = Ok b -> rd (snd I) i = Some b.
Proof.
  intros P Hi E. rewrite <- (pre_rd u I W i P Hi) in E. unfold rdU in E.
  destruct (rd (snd I) i); [now injection E as ->|discriminate].
Qed.

Lemma raw_trunc u I W sl :
  pre u I W -> Ipv6RawExtHeaderSlice.from_slice W = Ok sl -> s_len sl <= u ->
  Ipv6RawExtHeaderSlice.from_slice I = Ok sl.
Proof.
  intros P H Lu. destruct (raw_inv _ _ H) as (b & E1 & Hsl & Ll).
  pose proof (subU_inv _ _ _ _ Hsl) as (_ & Lsl & _). rewrite Lsl in Lu.
  unfold Ipv6RawExtHeaderSlice.from_slice. rewrite (pre_len _ _ _ P).
  destruct (u <? 8) eqn:E8; [lia|].
  rewrite (rd_pre u I W 1 b P) by (auto; lia). cbn [bind].
  destruct (u <? (b + 1) * 8) eqn:El; [lia|].
  rewrite (pre_subU u I W 0 ((b + 1) * 8) P) by lia. exact Hsl.
Qed.

Lemma frag_trunc u I W sl :
  pre u I W -> Ipv6FragmentHeaderSlice.from_slice W = Ok sl -> s_len sl <= u ->
  Ipv6FragmentHeaderSlice.from_slice I = Ok sl.
Proof.
  intros P H Lu. destruct (frag_inv _ _ H) as (Hsl & Ll).
  pose proof (subU_inv _ _ _ _ Hsl) as (_ & Lsl & _). rewrite Lsl in Lu.
  unfold Ipv6FragmentHeaderSlice.from_slice. rewrite (pre_len _ _ _ P).
  destruct (u <? 8) eqn:E8; [lia|].
  rewrite (pre_subU u I W 0 8 P) by lia. exact Hsl.
Qed.

Lemma ah_trunc u I W sl :
  pre u I W -> IpAuthHeaderSlice.from_slice W = Ok sl -> s_len sl <= u ->
  IpAuthHeaderSlice.from_slice I = Ok sl.
Proof.
  intros P H Lu. destruct (ah_inv _ _ H) as (p & E1 & P1 & Hsl & Ll).
  pose proof (subU_inv _ _ _ _ Hsl) as (_ & Lsl & _). rewrite Lsl in Lu.
  unfold IpAuthHeaderSlice.from_slice. rewrite (pre_len _ _ _ P).
  destruct (u <? 12) eqn:E12; [lia|].
  rewrite (pre_rd u I W 1 P) by lia. rewrite E1. cbn [bind].
  destruct (p <? 1) eqn:Ep; [lia|].
  destruct (u <? (p + 2) * 4) eqn:El; [lia|].
  rewrite (pre_subU u I W 0 ((p + 2) * 4) P) by lia. exact Hsl.
Qed.

(* the slice walker accepts the prefix it consumed *)
Lemma walk_trunc fuel sl0 :
  forall W nh fr Wf nhf frf,
    Ipv6ExtensionsSlice.walk fuel sl0 W nh fr = Ok (Wf, nhf, frf) ->
    forall I fuel2 sl2,
      pre (s_len W - s_len Wf) I W -> s_len W - s_len Wf <= sl2 ->
      (N.to_nat (s_len W - s_len Wf) < fuel2)%nat ->
      exists If, Ipv6ExtensionsSlice.walk fuel2 sl2 I nh fr = Ok (If, nhf, frf) /\ s_len If = 0.
Proof.
  induction fuel as [|f IH]; intros W nh fr Wf nhf frf H I fuel2 sl2 P Lsl2 Hf; [discriminate|].
  pose proof (walk_collect _ _ _ _ _ _ _ _ H) as (LWf & _ & _).
  pose proof (pre_len _ _ _ P) as LI.
  destruct fuel2 as [|f2]; [lia|].
  cbn [Ipv6ExtensionsSlice.walk] in H |- *.
  destruct (nh =? IPN_HOP_BY_HOP) eqn:E0; [discriminate|].
  (* the common tail of the three continuing arms, after the header slicer *)
  assert (Tail : forall sl W' nx fr',
            8 <= s_len sl -> s_len sl <= s_len W ->
            subU W (s_len sl) (s_len W - s_len sl) = Ok W' ->
            Ipv6ExtensionsSlice.walk f sl0 W' nx fr' = Ok (Wf, nhf, frf) ->
            s_len sl <= s_len W - s_len Wf /\
            exists I', subU I (s_len sl) (s_len I - s_len sl) = Ok I' /\
              exists If, Ipv6ExtensionsSlice.walk f2 sl2 I' nx fr' = Ok (If, nhf, frf) /\ s_len If = 0).
  { intros sl W' nx fr' L8 Ll EW' HK.
    pose proof (walk_collect _ _ _ _ _ _ _ _ HK) as (LWf' & _ & _).
    pose proof (subU_inv _ _ _ _ EW') as (_ & LW' & _).
    set (u := s_len W - s_len Wf) in *.
    assert (Lu : s_len sl <= u) by lia. split; [exact Lu|].
    destruct (subU_ok I (s_len sl) (u - s_len sl)) as (I' & EI' & _ & _); [lia|].
    rewrite LI. exists I'. split; [exact EI'|].
    apply (IH _ _ _ _ _ _ HK I' f2 sl2).
    - replace (s_len W' - s_len Wf) with (u - s_len sl) by lia.
      exact (pre_rest u I W (s_len sl) I' W' P Lu EI' EW').
    - lia.
    - lia. }
  rewrite LI. rewrite (subN_ok sl2 (s_len W - s_len Wf)) by lia.
  destruct ((nh =? IPN_DEST_OPTIONS) || (nh =? IPN_ROUTE)) eqn:Eraw.
  { binv H off Eoff. binv H sl Esl. apply map_len_err_inv in Esl.
    destruct (raw_inv _ _ Esl) as (b & E1 & Hsl & Ll). pose proof (subU_inv _ _ _ _ Hsl) as (_ & Lsl & _).
    binv H n En. apply subN_inv in En. destruct En as (Ln & ->). binv H W' EW'. binv H nx Enx.
    destruct (Tail sl W' nx fr) as (Lu & I' & EI' & If & EIf & Z); auto; try lia.
    cbn [bind]. rewrite (raw_trunc _ I W sl P Esl Lu). cbn [map_len_err bind].
    rewrite LI in EI'. rewrite subN_ok by lia. cbn [bind]. rewrite EI'. cbn [bind]. rewrite Enx. cbn [bind].
    exists If. auto. }
  destruct (nh =? IPN_FRAG) eqn:Efrag.
  { binv H off Eoff. binv H sl Esl. apply map_len_err_inv in Esl.
    destruct (frag_inv _ _ Esl) as (Hsl & Ll). pose proof (subU_inv _ _ _ _ Hsl) as (_ & Lsl & _).
    binv H n En. apply subN_inv in En. destruct En as (Ln & ->). binv H W' EW'. binv H nx Enx.
    binv H fr2 Efr.
    destruct (Tail sl W' nx (fr || fr2)) as (Lu & I' & EI' & If & EIf & Z); auto; try lia.
    cbn [bind]. rewrite (frag_trunc _ I W sl P Esl Lu). cbn [map_len_err bind].
    rewrite LI in EI'. rewrite subN_ok by lia. cbn [bind]. rewrite EI'. cbn [bind]. rewrite Enx. cbn [bind].
    rewrite Efr. cbn [bind]. exists If. auto. }
  destruct (nh =? IPN_AUTH) eqn:Eauth.
  { binv H off Eoff. binv H sl Esl.
    assert (Esl' : IpAuthHeaderSlice.from_slice W = Ok sl).
    { destruct (IpAuthHeaderSlice.from_slice W) as [a|[e|c]|b]; try discriminate; exact Esl. }
    destruct (ah_inv _ _ Esl') as (p & E1 & P1 & Hsl & Ll). pose proof (subU_inv _ _ _ _ Hsl) as (_ & Lsl & _).
    binv H n En. apply subN_inv in En. destruct En as (Ln & ->). binv H W' EW'. binv H nx Enx.
    destruct (Tail sl W' nx fr) as (Lu & I' & EI' & If & EIf & Z); auto; try lia.
    cbn [bind]. rewrite (ah_trunc _ I W sl P Esl' Lu). cbn [bind].
    rewrite LI in EI'. rewrite subN_ok by lia. cbn [bind]. rewrite EI'. cbn [bind]. rewrite Enx. cbn [bind].
    exists If. auto. }
  (* end of the chain: nothing was consumed, the prefix is empty *)
  injection H as <- <- <-. exists I. split; [reflexivity|]. rewrite LI. lia.
Qed.

(* rewrite with an equation about the walk up to the spelling of `bytes` / `list N` *)
Ltac rw_walk E :=
  match type of E with
  | _ = ?r =>
      match goal with
      | |- context [Ipv6ExtensionsSlice.walk ?a ?b ?c ?d ?e] =>
          replace (Ipv6ExtensionsSlice.walk a b c d e) with r by (symmetry; exact E)
      end
  end.

Lemma exts_trunc nh s x nx rest :
  Ipv6ExtensionsSlice.from_slice nh s = Ok (x, nx, rest) ->
  exists x' rest', Ipv6ExtensionsSlice.from_slice nh (x6_slice x) = Ok (x', nx, rest').
Proof.
  unfold Ipv6ExtensionsSlice.from_slice at 1. intros H.
  binv H st Est. destruct st as (rest0, nh0).
  binv H w Ew. destruct w as ((restf, nxf), frf).
  binv H used Eu. apply subN_inv in Eu. destruct Eu as (Lr & ->).
  binv H sl Esl.
  destruct (s_len s - s_len restf <=? s_len s) eqn:Eus; [|discriminate]. injection Esl as <-.
  injection H as <- <- <-. cbn [x6_slice].
  set (used := s_len s - s_len restf) in *.
  set (I := (fst s, take used (snd s))).
  assert (PI : pre used I s) by (apply pre_take; lia).
  assert (LI : s_len I = used) by (now apply pre_len in PI).
  assert (Fin : forall If, s_len If = 0 ->
            exists x' rest',
              (let* used' := subN (s_len I) (s_len If) in
               let* sl := (if used' <=? s_len I then Ok (fst I, take used' (snd I)) else Bug SITE_INDEX) in
               Ok (mkIpv6Exts (if negb (s_len If =? s_len I) then Some nh else None) frf sl, nxf, If))
              = Ok (x', nxf, rest')).
  { intros If Z. rewrite Z. rewrite subN_ok by lia. cbn [bind]. rewrite N.sub_0_r, N.leb_refl. cbn [bind].
    eexists _, _. reflexivity. }
  unfold Ipv6ExtensionsSlice.from_slice.
  destruct (IPN_HOP_BY_HOP =? nh) eqn:Ehbh.
  - binv Est sl0 Esl0. binv Est r0 Er0. binv Est n0 En0. injection Est as <- <-.
    destruct (s_len sl0 <=? s_len s) eqn:El0; [|discriminate]. injection Er0 as <-.
    destruct (raw_inv _ _ Esl0) as (b & E1 & Hsl0 & Ll0).
    pose proof (subU_inv _ _ _ _ Hsl0) as (_ & Lsl0 & _).
    set (l0 := s_len sl0) in *.
    assert (HW' : subU s l0 (s_len s - l0) = Ok (fst s + l0, drop l0 (snd s))) by (apply drop_as_sub; lia).
    set (W' := (fst s + l0, drop l0 (snd s))) in *.
    pose proof (subU_inv _ _ _ _ HW') as (_ & LW' & _).
    pose proof (walk_collect _ _ _ _ _ _ _ _ Ew) as (A1 & _ & _).
    assert (Lu : l0 <= used) by (subst used; lia).
    rewrite (raw_trunc used I s sl0 PI Esl0 Lu). cbn [bind]. fold l0. rewrite LI.
    destruct (l0 <=? used) eqn:El1; [|lia]. cbn [bind]. rewrite En0. cbn [bind].
    assert (HI' : subU I l0 (used - l0) = Ok (fst I + l0, drop l0 (snd I))).
    { rewrite <- LI. apply drop_as_sub. lia. }
    pose proof (pre_rest used I s l0 _ W' PI Lu HI' HW') as P'.
    replace (used - l0) with (s_len W' - s_len restf) in P' by (subst used; lia).
    destruct (walk_trunc _ _ _ _ _ _ _ _ Ew (fst I + l0, drop l0 (snd I)) (S (length (snd I))) used P')
      as (If & EIf & Z); [subst used; lia|rewrite s_len_length, LI; subst used; lia|].
    rw_walk EIf. cbn [bind]. rewrite <- LI. apply Fin. exact Z.
  - injection Est as <- <-. cbn [bind].
    destruct (walk_trunc _ _ _ _ _ _ _ _ Ew I (S (length (snd I))) (s_len I) PI)
      as (If & EIf & Z); [lia|rewrite s_len_length, LI; lia|].
    rw_walk EIf. cbn [bind]. apply Fin. exact Z.
Qed.

(* the struct decoder accepts what the slice walker accepts *)
Lemma struct_exts_ok nh I x' nx rest' :
  bytes_ok (snd I) -> Ipv6ExtensionsSlice.from_slice nh I = Ok (x', nx, rest') ->
  exists r, HdrModel.Ipv6Extensions.from_slice nh I = Ok r.
Proof.
  intros Hok H.
  pose proof (HdrProofs2.exts_agree nh I Hok) as R.
  pose proof (HdrProofs.dich_exts nh I) as D. rewrite HdrProofs.cut_false_exts, H in D.
  unfold HdrProofs2.exts_rel in R.
  destruct D as [E|[(v & E & _)|(b & E)]]; rewrite E in R.
  - destruct (HdrModel.Ipv6Extensions.from_slice nh I) as [r|e|b]; [eauto|contradiction|contradiction].
  - destruct (HdrModel.Ipv6Extensions.from_slice nh I) as [r|e|b]; [eauto| |];
      destruct v as ((xs, n2), r2); contradiction.
  - destruct (HdrModel.Ipv6Extensions.from_slice nh I) as [[[xx nn] rr]|e|b']; contradiction.
Qed.

(* what Ipv6Slice::from_slice / IpSlice::from_slice store *)
Lemma ipv6_finish_exts s header v :
  Ipv6Slice.finish s header = Ok v ->
  v6_header v = header /\
  exists nh hp pn payload,
    rdU header 6 = Ok nh /\ sub_of hp s /\
    Ipv6ExtensionsSlice.from_slice nh hp = Ok (v6_exts v, pn, payload).
Proof.
  unfold Ipv6Slice.finish. intros H. binv H pl Epl. binv H hp Ehp. destruct hp as (hp, src).
  assert (Shp : sub_of hp s).
  { destruct ((0 =? pl) && (40 <? s_len s)).
    - binv Ehp n En. binv Ehp p Ep. injection Ehp as <- <-. now exists 40, n.
    - destruct (s_len s <? 40 + pl); unfold lerr in Ehp; [discriminate|].
      binv Ehp p Ep. injection Ehp as <- <-. now exists 40, pl. }
  binv H nh Enh. binv H x Ex. destruct x as ((exts, pn), payload). injection H as <-. cbn.
  assert (Ex' : Ipv6ExtensionsSlice.from_slice nh hp = Ok (exts, pn, payload)).
  { destruct (Ipv6ExtensionsSlice.from_slice nh hp) as [a|[e|c]|b]; try discriminate; exact Ex. }
  split; [reflexivity|]. exists nh, hp, pn, payload. auto.
Qed.

Definition from_strict (s : slice) (i : ip_slice) : Prop :=
  IpSlice.from_slice s = Ok i \/
  (exists v, Ipv4Slice.from_slice s = Ok v /\ i = IpV4 v) \/
  (exists v, Ipv6Slice.from_slice s = Ok v /\ i = IpV6 v).

Lemma from_strict_v6 s v :
  from_strict s (IpV6 v) -> exists header, wf_ipv6h header /\ Ipv6Slice.finish s header = Ok v.
Proof.
  intros [H|[(v' & H & E)|(v' & H & E)]]; [|discriminate|].
  - unfold IpSlice.from_slice in H. destruct (s_len s =? 0); unfold lerr in H; [discriminate|].
    binv H fb Efb. destruct (N.shiftr fb 4 =? 4).
    + destruct (N.land fb 15 <? 5); [discriminate|]. destruct (s_len s <? N.land fb 15 * 4); [discriminate|].
      binv H header Eh. binv H total Et.
      destruct (total <? N.land fb 15 * 4); [discriminate|]. destruct (s_len s <? total); [discriminate|].
      binv H n En. binv H hp Ehp. binv H v4 Ev. discriminate.
    + destruct (N.shiftr fb 4 =? 6); [|discriminate]. destruct (s_len s <? 40); [discriminate|].
      binv H header Eh. binv H v6 Ev. injection H as <-.
      exists header. split; [|exact Ev]. now pose proof (subU_inv _ _ _ _ Eh) as (_ & Lh & _).
  - injection E as <-. unfold Ipv6Slice.from_slice in H. binv H header Eh.
    apply ipv6h_wf in Eh. destruct Eh as (Wh & _). eauto.
Qed.

Lemma from_strict_v4 s v : from_strict s (IpV4 v) -> wf_ipv4 v /\ ipv4_in v s.
Proof.
  intros [H|[(v' & H & E)|(v' & H & E)]]; [|injection E as <-; now apply ipv4_wf|discriminate].
  exact (ip_wf _ _ H).
Qed.

Lemma ipv4h_to_header_okr h : wf_ipv4h h -> okr (Ipv4HeaderA.to_header h).
Proof.
  intros (L1 & L2). unf_ipv4h. oksteps.
  destruct (ipv4h_to_header_options_ok w) as (o & ->); [lia|]. eexists; reflexivity.
Qed.

(* the `expect` of the IPv6 arm *)
Theorem v6_exts_to_header_ok s v :
  from_strict s (IpV6 v) -> bytes_ok (snd s) ->
  exists x, IpSliceToHeaderA.v6_exts_to_header v = Ok x.
Proof.
  intros F Hok. destruct (from_strict_v6 s v F) as (header & Wh & Hf).
  destruct (ipv6_finish_exts _ _ _ Hf) as (Eh & nh & hp & pn & payload & Enh & Shp & Ex).
  unfold IpSliceToHeaderA.v6_exts_to_header, Ipv6HeaderA.next_header. rewrite Eh, Enh. cbn [bind].
  destruct (exts_trunc _ _ _ _ _ Ex) as (x' & rest' & Et).
  pose proof (exts_good_from_slice _ _ _ _ _ Ex) as (_ & Sx & _).
  assert (HokI : bytes_ok (snd (x6_slice (v6_exts v)))).
  { eapply sub_of_bytes_ok; [exact Sx|]. eapply sub_of_bytes_ok; eauto. }
  destruct (struct_exts_ok _ _ _ _ _ HokI Et) as (((xx & nn) & rr) & ->). eauto.
Qed.

(* IpSlice::to_header returns normally for every strict IP slice *)
Theorem ip_slice_to_header_ok s i :
  from_strict s i -> bytes_ok (snd s) -> IpSliceToHeaderA.to_header i = Ok tt.
Proof.
  intros F Hok. destruct i as [v|v]; cbn [IpSliceToHeaderA.to_header].
  - destruct (from_strict_v4 s v F) as ((Wh & Wa) & _ & Sa & _).
    destruct (ipv4h_to_header_okr _ Wh) as (x & ->). cbn [bind].
    destruct (v4_auth v) as [a|]; [|reflexivity].
    destruct (ah_to_header_ok a Wa) as (y & ->); [eapply sub_of_bytes_ok; eauto|]. reflexivity.
  - destruct (from_strict_v6 s v F) as (header & Wh & Hf).
    destruct (ipv6_finish_exts _ _ _ Hf) as (Eh & _). rewrite Eh.
    assert (okr (Ipv6HeaderA.to_header header)) as (x & ->).
    { unfold wf_ipv6h in Wh. unf_ipv6h. oksolve. }
    cbn [bind]. destruct (v6_exts_to_header_ok s v F Hok) as (y & ->). reflexivity.
Qed.
