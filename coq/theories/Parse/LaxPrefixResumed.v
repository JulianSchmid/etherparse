(* Parse/LaxPrefixResumed.v -- (b) through the length fallbacks: where the strict reference decoder
   rejects because a MACsec short length, an IPv4 total length or an IPv6 payload length promises more
   than is there, the lax decoding is the strict decoding resumed on the data that is there (every layer
   including transport when that accepts; prefix and stop error when it rejects), the layer at the
   fallback flagged incomplete (`resumed_ok`).  `pwire3` (LaxWire3.v) with the resumed decoding
   forgotten is `pwire2`, with everything forgotten `pwire`; the theorem is transferred to the strict
   and the lax model with StrictProofs.v / LaxWireProofs.v. *)
From EP Require Import Base.Bytes Parse.Types Parse.Cursor Parse.View Parse.WireSpec Parse.StrictProofs
  Parse.LaxCursor Parse.LaxView Parse.LaxProofs Parse.LaxFacts Parse.LaxWire Parse.LaxSecTag
  Parse.LaxWireProofs Parse.LaxWireFacts Parse.LaxPrefix Parse.LaxWire2 Parse.LaxPrefixNet Parse.LaxWire3.
From Coq Require Import ZArith Lia ZifyN ZifyBool List.
Import ListNotations.
Local Open Scope N_scope.

(* pwire3 is pwire2 except that the MACsec short-length rejection carries the resumed decoding *)
Definition demacsec (pw : pres2) : pres2 :=
  match pw with
  | P2Fb p (ELen l) inc r =>
      match le_layer l with
      | LyMacsecPacket => P2Rej p (ELen l)
      | _ => pw
      end
  | _ => pw
  end.

Lemma demacsec_of p r : demacsec (pres2_of p r) = pres2_of p r.
Proof. destruct r; reflexivity. Qed.
Lemma demacsec_netr p n tag r : demacsec (pres2_net p n tag r) = pres2_net p n tag r.
Proof. destruct r; reflexivity. Qed.

Lemma demacsec_net bs p et src pos lim :
  demacsec (pwire2_net bs p et src pos lim) = pwire2_net bs p et src pos lim.
Proof.
  unfold pwire2_net.
  destruct (et =? 2054); [apply demacsec_of|].
  destruct (et =? 2048).
  { unfold pwire2_ipv4.
    destruct (lim - pos <? 20); [reflexivity|].
    destruct (negb (B bs pos / 16 =? 4)); [reflexivity|].
    destruct (B bs pos mod 16 <? 5); [reflexivity|].
    destruct (lim - pos <? B bs pos mod 16 * 4); [reflexivity|].
    unfold pwire2_ipv4_body.
    destruct (W bs (pos + 2) <? _); [reflexivity|].
    destruct (lim - pos <? W bs (pos + 2)); [reflexivity|].
    unfold pwire2_ipv4_tail. cbv zeta.
    destruct (B bs (pos + 9) =? 51); [|apply demacsec_of].
    destruct (wire_ah bs _ _ _ _); [apply demacsec_of|apply demacsec_netr]. }
  destruct (et =? 34525); [|reflexivity].
  unfold pwire2_ipv6.
  destruct (lim - pos <? 40); [reflexivity|].
  destruct (negb (B bs pos / 16 =? 6)); [reflexivity|].
  assert (T : forall esrc psrc inc lim', demacsec (pwire2_ipv6_tail bs p esrc psrc inc pos lim') =
                                        pwire2_ipv6_tail bs p esrc psrc inc pos lim').
  { intros. unfold pwire2_ipv6_tail. cbv zeta.
    destruct (wire_exts2 bs _ _ _ _ _); [apply demacsec_of|apply demacsec_netr]. }
  unfold pwire2_ipv6_body.
  destruct ((W bs (pos + 4) =? 0) && (40 <? lim - pos)); [apply T|].
  destruct (lim - pos <? 40 + W bs (pos + 4)); [reflexivity|apply T].
Qed.

Lemma pwire3_ether_macsec bs c p src pos lim :
  pwire3_ether bs (S c) p 35045 src pos lim =
  sectag_strict bs p src pos lim (P2Rej p) (fun e r => P2Fb p e true r) (pwire3_ether bs c) P2Acc.
Proof. cbn [pwire3_ether]. macsec_arm. Qed.

Lemma demacsec_ether bs cap : forall p et src pos lim,
  demacsec (pwire3_ether bs cap p et src pos lim) = pwire2_ether bs cap p et src pos lim.
Proof.
  induction cap as [|cap IH]; intros p et src pos lim.
  - cbn [pwire3_ether pwire2_ether].
    destruct (is_vlan et); [reflexivity|]. destruct (et =? 35045); [reflexivity|]. apply demacsec_net.
  - destruct (N.eqb_spec et 35045) as [->|Ne].
    { rewrite pwire3_ether_macsec, pwire2_ether_macsec. now apply sectag_strict_map. }
    apply N.eqb_neq in Ne. cbn [pwire3_ether pwire2_ether]. rewrite Ne.
    destruct (is_vlan et); [|apply demacsec_net].
    destruct (lim - pos <? 4); [reflexivity|apply IH].
Qed.

Lemma to_pres_demacsec pw : to_pres (demacsec pw) = to_pres pw.
Proof.
  destruct pw as [q|q e|q n tag e|q [l|c] inc r|s]; try reflexivity.
  cbn [demacsec]. destruct (le_layer l); reflexivity.
Qed.

Lemma to_pres3_ether bs cap p et src pos lim :
  to_pres (pwire3_ether bs cap p et src pos lim) = pwire_ether bs cap p et src pos lim.
Proof. rewrite <- to_pres_demacsec, demacsec_ether. apply to_pres_ether. Qed.

Theorem pwire3_is_pwire bs et :
  to_pres (pwire3_ethernet bs) = pwire_ethernet bs /\
  to_pres (pwire3_ether_type bs et) = pwire_ether_type bs et.
Proof.
  split.
  - unfold pwire3_ethernet, pwire_ethernet. destruct (n_bs bs <? 14); [reflexivity|apply to_pres3_ether].
  - apply to_pres3_ether.
Qed.

(* pwire3 accepts / rejects exactly like the wire format specification, with the same error record *)
Theorem pwire3_sound bs et :
  forget (to_pres (pwire3_ethernet bs)) = wire_ethernet bs /\
  forget (to_pres (pwire3_ether_type bs et)) = wire_ether_type bs et.
Proof.
  destruct (pwire3_is_pwire bs et) as (-> & ->). destruct (pwire_sound bs et) as (S1 & S2 & _). auto.
Qed.

Theorem pwire3_is_pwire2 bs et :
  demacsec (pwire3_ethernet bs) = pwire2_ethernet bs /\
  demacsec (pwire3_ether_type bs et) = pwire2_ether_type bs et.
Proof.
  split.
  - unfold pwire3_ethernet, pwire2_ethernet. destruct (n_bs bs <? 14); [reflexivity|apply demacsec_ether].
  - apply demacsec_ether.
Qed.

Lemma lx_ip_body bs p csrc pos lim : lv_exts (lwire_ip_body bs p csrc pos lim) = lv_exts p.
Proof.
  unfold lwire_ip_body. destruct (lwire_ip_parts bs csrc pos lim) as [[[net pl] st] lim'].
  rewrite (proj1 (proj2 (ltransport_keeps _ _ _ _ _ _ _))). destruct st; reflexivity.
Qed.

Lemma lx_ip bs p csrc pos lim : lv_exts (lwire_ip bs p csrc pos lim) = lv_exts p.
Proof. unfold lwire_ip. destruct (ip_hdr_fault bs csrc pos lim); [reflexivity|apply lx_ip_body]. Qed.

Lemma lx_arp bs p csrc pos lim : lv_exts (lwire_arp bs p csrc pos lim) = lv_exts p.
Proof.
  unfold lwire_arp, lcut. destruct (lim - pos <? 8); [reflexivity|].
  destruct (lim - pos <? _); reflexivity.
Qed.

Lemma lx_ether bs cap : forall p et csrc pos lim,
  exists rest, lv_exts (lwire_ether bs cap p et csrc pos lim) = lv_exts p ++ rest.
Proof.
  assert (Net : forall p et csrc pos lim,
            exists rest,
              lv_exts (if et =? 2054 then lwire_arp bs p csrc pos lim
                       else if (et =? 2048) || (et =? 34525) then lwire_ip bs p csrc pos lim else p)
              = lv_exts p ++ rest).
  { intros p et csrc pos lim. exists []. rewrite app_nil_r.
    destruct (et =? 2054); [apply lx_arp|].
    destruct ((et =? 2048) || (et =? 34525)); [apply lx_ip|reflexivity]. }
  assert (Nil : forall p q : lvpacket, lv_exts q = lv_exts p -> exists rest, lv_exts q = lv_exts p ++ rest)
    by (intros p q H; exists []; now rewrite app_nil_r).
  assert (Snoc : forall p x r, (exists rest, lv_exts r = lv_exts (lwith_ext p x) ++ rest) ->
                               exists rest, lv_exts r = lv_exts p ++ rest).
  { intros p x r (rest & H). exists ([x] ++ rest). rewrite H. cbn [lwith_ext lv_exts].
    now rewrite <- app_assoc. }
  induction cap as [|cap IH]; intros p et csrc pos lim.
  - cbn [lwire_ether].
    destruct (is_vlan et); [now apply Nil|]. destruct (et =? 35045); [now apply Nil|]. apply Net.
  - destruct (N.eqb_spec et 35045) as [->|Ne].
    { rewrite lwire_ether_macsec. unfold lcut.
      destruct (sectag_dec bs pos lim) as [req|c|hl body unmod has_sl inc]; [now apply Nil|now apply Nil|].
      cbv zeta. destruct unmod; eapply Snoc; [apply IH|exists []; now rewrite app_nil_r]. }
    apply N.eqb_neq in Ne. cbn [lwire_ether]. rewrite Ne.
    destruct (is_vlan et); [|apply Net].
    unfold lcut. destruct (lim - pos <? 4); [now apply Nil|]. eapply Snoc. apply IH.
Qed.

Section NetBody3.
  Variables (bs : bytes) (p : vpacket) (lp : lvpacket) (src : len_source) (pos lim : N).
  Hypothesis Hs : strictify lp = p.
  Hypothesis Hst : lv_stop lp = None.
  Hypothesis Hn : lv_net lp = None.
  Hypothesis Htr : lv_transport lp = None.

  (* a tail reached without a length fallback *)
  Lemma tail_strict3 inc psrc pw r net : tail_outcome3 inc psrc pw r net -> resumed_ok bs pw r.
  Proof.
    intros (T1 & T2 & T3). destruct pw; cbn [resumed_ok tail_ok3] in *; try contradiction.
    - exact T3.
    - intros _. exact (proj2 T3).
    - destruct T3 as (-> & T3 & V). split; assumption.
  Qed.

  (* a tail reached through an IP length fallback *)
  Lemma tail_fb3 l inc pw r net :
    (le_layer l = LyIpv4Packet \/ le_layer l = LyIpv6Packet) ->
    vprefix p (strictify r) ->
    tail_outcome3 inc LsSlice pw r net -> resumed_ok bs (P2Fb p (ELen l) inc pw) r.
  Proof.
    intros Hl V T. pose proof T as (T1 & T2 & T3). cbn [resumed_ok].
    split; [cbn; tauto|]. split; [exact V|]. split.
    - cbn [fb_flagged]. destruct Hl as [-> | ->]; exists net; split; assumption.
    - eapply tail_strict3. exact T.
  Qed.

  (* `r_x` in this file: `resumed_ok` for x (the walk `w_x` of LaxPrefixNet.v at P := resumed_ok bs).
     A rejection of the IP header itself: (b) of LaxPrefix.v *)
  Lemma r_rej_ipv4 e :
    pwire_ipv4 bs p src pos lim = PRej p e -> resumed_ok bs (P2Rej p e) (lwire_ip bs lp src pos lim).
  Proof. intros H NF. exact (b_ipv4 bs p lp src pos lim Hs Hst Hn Htr p e H NF). Qed.

  Lemma r_rej_ipv6 e :
    pwire_ipv6 bs p src pos lim = PRej p e -> resumed_ok bs (P2Rej p e) (lwire_ip bs lp src pos lim).
  Proof. intros H NF. exact (b_ipv6 bs p lp src pos lim Hs Hst Hn Htr p e H NF). Qed.

  (* starting at "an IP header" behind a decodable header (from_ip) *)
  Lemma r_ip :
    ip_hdr_fault bs src pos lim = None ->
    resumed_ok bs (pwire2_ip bs p src pos lim) (lwire_ip_body bs lp src pos lim).
  Proof. apply (w_ip bs p lp src pos lim Hs Hst Hn Htr (resumed_ok bs)); [apply tail_strict3|apply tail_fb3]. Qed.

  Lemma r_net et :
    resumed_ok bs (pwire2_net bs p et src pos lim)
      (if et =? 2054 then lwire_arp bs lp src pos lim
       else if (et =? 2048) || (et =? 34525) then lwire_ip bs lp src pos lim else lp).
  Proof.
    unfold pwire2_net.
    destruct (et =? 2054).
    { destruct (arp_agree bs lp src pos lim Hn) as (V & O). rewrite Hs in V, O.
      destruct (wire_arp bs p src pos lim) as [q'|e'|s]; cbn [pres2_of resumed_ok].
      - destruct O as (O1 & O2). split; [exact O1|exact (eq_trans O2 Hst)].
      - intros _. split; [exact V|exact O].
      - exact O. }
    destruct (et =? 2048).
    { apply (w_ipv4 bs p lp src pos lim Hs Hst Hn Htr (resumed_ok bs));
        [apply tail_strict3|apply tail_fb3|apply r_rej_ipv4]. }
    destruct (et =? 34525).
    { apply (w_ipv6 bs p lp src pos lim Hs Hst Hn Htr (resumed_ok bs));
        [apply tail_strict3|apply tail_fb3|apply r_rej_ipv6]. }
    cbn [orb resumed_ok]. split; assumption.
  Qed.
End NetBody3.

Lemma r_ether bs cap : forall p lp et src pos lim,
  strictify lp = p -> lv_stop lp = None -> lv_net lp = None -> lv_transport lp = None ->
  resumed_ok bs (pwire3_ether bs cap p et src pos lim) (lwire_ether bs cap lp et src pos lim).
Proof.
  induction cap as [|cap IH]; intros p lp et src pos lim Hs Hst Hn Htr.
  - cbn [pwire3_ether lwire_ether]. destruct (is_vlan et); [cbn [resumed_ok]; split; assumption|].
    destruct (et =? 35045); [cbn [resumed_ok]; split; assumption|]. now apply r_net.
  - assert (Rec : forall e e0 tag, lax_same e e0 -> tag_ok e0 tag ->
              resumed_ok bs (P2Rej p e) (lstop lp (e0, tag))).
    { intros e e0 tag S T _. split; [rewrite strictify_lstop, Hs; apply vprefix_refl|].
      right. left. exists e0, tag. split; [reflexivity|]. split; assumption. }
    destruct (N.eqb_spec et 35045) as [->|Ne].
    2:{ apply N.eqb_neq in Ne. cbn [pwire3_ether lwire_ether]. rewrite Ne.
        destruct (is_vlan et); [|now apply r_net].
        unfold lcut. destruct (lim - pos <? 4).
        { apply Rec; [|reflexivity]. cbn. repeat split; auto. }
        apply IH; auto. rewrite strictify_lwith_ext, Hs. reflexivity. }
    rewrite pwire3_ether_macsec, lwire_ether_macsec. unfold sectag_strict, lcut.
    destruct (sectag_dec bs pos lim) as [req|c|hl body unmod has_sl inc] eqn:Ed.
    { apply Rec; [|reflexivity]. cbn. repeat split; auto. }
    { apply Rec; [reflexivity|]. exact (sectag_bad_tag _ _ _ _ Ed). }
    cbv zeta. destruct inc.
    { (* the short length promises more than is there: lax goes on to the end of the enclosing data *)
      rewrite andb_false_r. cbv iota. change (pick_src LsSlice src) with src.
      assert (Len : length (v_exts p) = length (lv_exts lp))
        by (rewrite <- Hs; unfold strictify; cbn [v_exts]; apply map_length).
      cbn [resumed_ok]. split; [cbn; auto|].
      destruct unmod.
      - set (x := LVMacsec (pos, hl)
                    (LVMpUnmodified (mkLVEp true (W bs (pos + hl - 2)) LsSlice (pos + hl, lim - (pos + hl))))).
        assert (Hx : strictify (lwith_ext lp x) =
                     with_ext p (VMacsec (pos, hl) (VMpUnmodified
                       (mkVEp (W bs (pos + hl - 2)) LsSlice (pos + hl, lim - (pos + hl))))))
          by (rewrite strictify_lwith_ext, Hs; reflexivity).
        split.
        { eapply vprefix_trans; [|apply M_ether; assumption].
          rewrite strictify_lwith_ext, Hs. apply vprefix_with_ext. }
        split.
        { cbn [fb_flagged le_layer].
          destruct (lx_ether bs cap (lwith_ext lp x) (W bs (pos + hl - 2)) src (pos + hl) lim) as (rest & Hr).
          eexists _, _. rewrite Hr. cbn [lwith_ext lv_exts]. rewrite <- app_assoc, Len.
          rewrite nth_error_app2 by apply Nat.le_refl. rewrite Nat.sub_diag. cbn [app nth_error].
          split; [reflexivity|]. split; [reflexivity|left; reflexivity]. }
        apply IH; auto.
      - set (x := LVMacsec (pos, hl) (LVMpModified true (pos + hl, lim - (pos + hl)))).
        split; [rewrite strictify_lwith_ext, Hs; apply vprefix_with_ext|].
        split.
        { cbn [fb_flagged le_layer]. eexists _, _. cbn [lwith_ext lv_exts]. rewrite Len.
          rewrite nth_error_app2 by apply Nat.le_refl. rewrite Nat.sub_diag. cbn [nth_error].
          split; [reflexivity|]. split; [reflexivity|right; reflexivity]. }
        cbn [resumed_ok]. split; [rewrite strictify_lwith_ext, Hs; reflexivity|exact Hst]. }
    rewrite andb_true_r, pick_src_short.
    destruct unmod.
    2:{ cbn [resumed_ok]. split; [rewrite strictify_lwith_ext, Hs; reflexivity|exact Hst]. }
    apply IH; auto. rewrite strictify_lwith_ext, Hs. reflexivity.
Qed.

Theorem lax_prefix_resumed_packet bs et :
  bytes_ok bs ->
  (14 <= len bs ->
   prefix_resumed_ok bs (SlicedPacket.from_ethernet bs) (pwire3_ethernet bs)
     (LaxSlicedPacket.from_ethernet bs)) /\
  prefix_resumed_ok bs (SlicedPacket.from_ether_type et bs) (pwire3_ether_type bs et)
    (LaxSlicedPacket.from_ether_type et bs) /\
  (ip_header_fault bs = None ->
   prefix_resumed_ok bs (SlicedPacket.from_ip bs) (pwire2_from_ip bs) (LaxSlicedPacket.from_ip bs)).
Proof.
  intros Hok. destruct (pwire3_sound bs et) as (S1 & S2).
  destruct (pwire2_sound bs et) as (_ & _ & S3). split; [|split].
  - intros H14 e E.
    destruct (strict_err_pwire2 _ _ _ e (from_ethernet_rel bs Hok) S1 E) as (e_ref & PW & RE).
    destruct (lax_from_ethernet_ok bs Hok H14) as (r' & -> & Q).
    assert (E14 : (len bs <? 14) = false) by lia.
    exists e_ref, r'. split; [exact PW|]. split; [exact RE|]. split; [reflexivity|].
    rewrite Q. unfold pwire3_ethernet, n_bs. rewrite E14. apply r_ether; reflexivity.
  - intros e E.
    destruct (strict_err_pwire2 _ _ _ e (from_ether_type_rel bs et Hok) S2 E) as (e_ref & PW & RE).
    destruct (lax_from_ether_type_ok bs et Hok) as (r' & -> & Q).
    exists e_ref, r'. split; [exact PW|]. split; [exact RE|]. split; [reflexivity|].
    rewrite Q. unfold pwire3_ether_type, n_bs. apply r_ether; reflexivity.
  - intros HF e E. rewrite <- ip_hdr_fault_whole in HF.
    destruct (strict_err_pwire2 _ _ _ e (from_ip_rel bs Hok) S3 E) as (e_ref & PW & RE).
    destruct (lax_from_ip_ok bs Hok HF) as (r' & -> & Q).
    exists e_ref, r'. split; [exact PW|]. split; [exact RE|]. split; [reflexivity|].
    rewrite Q. unfold pwire2_from_ip, n_bs.
    apply (r_ip bs empty_packet lempty_packet LsSlice 0 (len bs)); try reflexivity. exact HF.
Qed.
