(* Parse/HdrSlots3.v -- property C04: the extension headers in front of the cut are a PREFIX
   of what the UNCUT slicing result yields.

   C04_ipv6_slots_in_order compares the struct's slots with the items of the slicing result CUT at
   the first refilled header (Cut.from_* true).  C04_cut_is_slicing_* says the cut result is the
   slicing result unless it stopped there.  Here, for the stopped case as well: whenever both the
   cut run and SlicedPacket.from_* succeed with an IPv6 network layer, they sit on the same IPv6
   header slice, the extension area of the cut result is a prefix of the extension area of the
   uncut result, and iterating the uncut result yields the cut result's items followed by more. *)
From Coq Require Import ZArith Lia ZifyN ZifyBool List.
From EP Require Import Parse.AccessProofs.
From EP Require Import Base.Bytes Parse.Types Parse.Slices Parse.Cursor Parse.View
  Parse.WireSpec Parse.Repr Parse.StrictProofs Parse.Access Parse.HdrModel Parse.HdrView Parse.HdrCut
  Parse.HdrProofs Parse.HdrProofs2 Parse.HdrProofs3 Parse.HdrSlots Parse.HdrSlots2.
Import ListNotations.
Import SlicedPacketCursor.
Import Ipv6ExtIterA.

Local Open Scope N_scope.

Lemma walk_cut_le fuel : forall sl rest nh fr f r1 n1 f1 r2 n2 f2,
  Cut.walk true fuel sl rest nh fr f = Ok (r1, n1, f1) ->
  Cut.walk false fuel sl rest nh fr f = Ok (r2, n2, f2) ->
  s_len r2 <= s_len r1.
Proof.
  induction fuel as [|fu IH]; intros sl rest nh fr f r1 n1 f1 r2 n2 f2 H1 H2; [discriminate|].
  assert (Le : s_len r2 <= s_len rest).
  { pose proof H2 as H2'. rewrite cut_false_walk in H2'.
    now destruct (AccessProofs.walk_collect _ _ _ _ _ _ _ _ H2') as (Le & _). }
  cbn [Cut.walk andb] in H1, H2.
  destruct (refilled f nh); [injection H1 as <- _ _; exact Le|].
  destruct (nh =? IPN_HOP_BY_HOP); [discriminate|].
  destruct ((nh =? IPN_DEST_OPTIONS) || (nh =? IPN_ROUTE)).
  { binv H1 off Eo. rewrite Eo in H2. cbn [bind] in H2.
    binv H1 s1 Es. rewrite Es in H2. cbn [bind] in H2.
    binv H1 n Enn. rewrite Enn in H2. cbn [bind] in H2.
    binv H1 rest' Er. rewrite Er in H2. cbn [bind] in H2.
    binv H1 nx Ex. rewrite Ex in H2. cbn [bind] in H2.
    exact (IH _ _ _ _ _ _ _ _ _ _ _ H1 H2). }
  destruct (nh =? IPN_FRAG).
  { binv H1 off Eo. rewrite Eo in H2. cbn [bind] in H2.
    binv H1 s1 Es. rewrite Es in H2. cbn [bind] in H2.
    binv H1 n Enn. rewrite Enn in H2. cbn [bind] in H2.
    binv H1 rest' Er. rewrite Er in H2. cbn [bind] in H2.
    binv H1 nx Ex. rewrite Ex in H2. cbn [bind] in H2.
    binv H1 frg Ef. rewrite Ef in H2. cbn [bind] in H2.
    exact (IH _ _ _ _ _ _ _ _ _ _ _ H1 H2). }
  destruct (nh =? IPN_AUTH).
  { binv H1 off Eo. rewrite Eo in H2. cbn [bind] in H2.
    binv H1 s1 Es. rewrite Es in H2. cbn [bind] in H2.
    binv H1 n Enn. rewrite Enn in H2. cbn [bind] in H2.
    binv H1 rest' Er. rewrite Er in H2. cbn [bind] in H2.
    binv H1 nx Ex. rewrite Ex in H2. cbn [bind] in H2.
    exact (IH _ _ _ _ _ _ _ _ _ _ _ H1 H2). }
  injection H1 as <- _ _. exact Le.
Qed.

(* the extension area of the cut result is a prefix of the uncut one, same first header number *)
Definition xpre (xs xs' : ipv6_exts_slice) : Prop :=
  pre (s_len (x6_slice xs)) (x6_slice xs) (x6_slice xs') /\
  (s_len (x6_slice xs) <> 0 -> x6_first xs' = x6_first xs).

Lemma exts_cut_pre nh hp xs n1 r1 xs' n2 r2 :
  Cut.exts_from_slice true nh hp = Ok (xs, n1, r1) ->
  Cut.exts_from_slice false nh hp = Ok (xs', n2, r2) -> xpre xs xs'.
Proof.
  unfold Cut.exts_from_slice. intros H1 H2.
  binv H1 st Est. rewrite Est in H2. cbn [bind] in H2. destruct st as (rest0, nh0).
  binv H1 w1 Ew1. destruct w1 as ((ra, na), fa).
  binv H2 w2 Ew2. destruct w2 as ((rb, nb), fb).
  pose proof (walk_cut_le _ _ _ _ _ _ _ _ _ _ _ _ Ew1 Ew2) as Le.
  binv H1 u1 Eu1. apply subN_inv in Eu1. destruct Eu1 as (La & ->).
  binv H2 u2 Eu2. apply subN_inv in Eu2. destruct Eu2 as (Lb & ->).
  binv H1 s1 Es1. destruct (s_len hp - s_len ra <=? s_len hp); [|discriminate]. injection Es1 as <-.
  binv H2 s2 Es2. destruct (s_len hp - s_len rb <=? s_len hp); [|discriminate]. injection Es2 as <-.
  injection H1 as <- _ _. injection H2 as <- _ _.
  unfold xpre. cbn [x6_slice x6_first].
  set (ua := s_len hp - s_len ra). set (ub := s_len hp - s_len rb).
  assert (Hab : ua <= ub) by (subst ua ub; lia).
  assert (L1 : s_len (fst hp, take ua (snd hp)) = ua) by (apply s_len_sub with (k := 0); subst ua; lia).
  assert (L2 : s_len (fst hp, take ub (snd hp)) = ub) by (apply s_len_sub with (k := 0); subst ub; lia).
  rewrite L1. split.
  - unfold pre. cbn [fst snd]. split; [reflexivity|]. split; [|rewrite L2; exact Hab].
    unfold take. rewrite firstn_firstn. f_equal. lia.
  - intros Hne.
    destruct (s_len ra =? s_len hp) eqn:Ea; [subst ua; lia|].
    destruct (s_len rb =? s_len hp) eqn:Eb; [subst ua ub; lia|]. reflexivity.
Qed.

Lemma pre_rd_inv u I W i v : pre u I W -> rdU I i = Ok v -> rdU W i = Ok v.
Proof.
  intros P H. pose proof (rdU_inv _ _ _ H) as Li. rewrite (pre_len _ _ _ P) in Li.
  now rewrite <- (pre_rd u I W i P Li).
Qed.

Lemma pre_subU_inv u I W k n s : pre u I W -> subU I k n = Ok s -> subU W k n = Ok s.
Proof.
  intros P H. pose proof (subU_inv _ _ _ _ H) as (L & _). rewrite (pre_len _ _ _ P) in L.
  now rewrite <- (pre_subU u I W k n P L).
Qed.

Lemma arm_pre u I W nh mk nhf wrap x it :
  pre u I W ->
  (forall s, mk I = Ok s -> mk W = Ok s) ->
  arm (mkExtIter nh I) mk nhf wrap = Ok (Some (x, it)) ->
  exists it', arm (mkExtIter nh W) mk nhf wrap = Ok (Some (x, it')) /\
              xi_next_header it' = xi_next_header it /\
              exists u', pre u' (xi_rest it) (xi_rest it').
Proof.
  intros P Hmk H. pose proof (pre_len _ _ _ P) as LI. unfold arm in *. cbn [xi_rest] in *.
  binv H sl Esl. binv H n En. apply subN_inv in En. destruct En as (Ln & ->).
  binv H rest' Er. binv H nx Enx. injection H as <- <-.
  rewrite (Hmk _ Esl). cbn [bind].
  assert (LW : u <= s_len W) by (destruct P as (_ & _ & L); exact L).
  rewrite subN_ok by lia. cbn [bind].
  destruct (subU_ok W (s_len sl) (s_len W - s_len sl)) as (W' & EW & _ & _); [lia|].
  rewrite EW. cbn [bind]. rewrite Enx. cbn [bind].
  eexists. split; [reflexivity|]. cbn [xi_next_header xi_rest]. split; [reflexivity|].
  exists (u - s_len sl). rewrite LI in Er. eapply pre_rest; eauto. lia.
Qed.

Lemma next_pre u I W nh x it :
  pre u I W -> next (mkExtIter nh I) = Ok (Some (x, it)) ->
  exists it', next (mkExtIter nh W) = Ok (Some (x, it')) /\
              xi_next_header it' = xi_next_header it /\
              exists u', pre u' (xi_rest it) (xi_rest it').
Proof.
  intros P H. pose proof (pre_len _ _ _ P) as LI.
  assert (LW : u <= s_len W) by (destruct P as (_ & _ & L); exact L).
  unfold next in *. cbn [xi_rest xi_next_header] in *.
  destruct (s_len I =? 0) eqn:Z; [discriminate|].
  destruct (s_len W =? 0) eqn:ZW; [lia|].
  assert (Raw : forall s, Ipv6RawExtHeaderA.from_slice_unchecked I = Ok s ->
                          Ipv6RawExtHeaderA.from_slice_unchecked W = Ok s).
  { unfold Ipv6RawExtHeaderA.from_slice_unchecked. intros s Hs. binv Hs b Eb.
    rewrite (pre_rd_inv _ _ _ _ _ P Eb). cbn [bind]. eapply pre_subU_inv; eauto. }
  assert (Frag : forall s, Ipv6FragmentHeaderA.from_slice_unchecked I = Ok s ->
                           Ipv6FragmentHeaderA.from_slice_unchecked W = Ok s).
  { unfold Ipv6FragmentHeaderA.from_slice_unchecked. intros s Hs. eapply pre_subU_inv; eauto. }
  assert (Auth : forall s, auth_from_slice_unchecked I = Ok s -> auth_from_slice_unchecked W = Ok s).
  { unfold auth_from_slice_unchecked. intros s Hs. binv Hs b Eb.
    rewrite (pre_rd_inv _ _ _ _ _ P Eb). cbn [bind]. eapply pre_subU_inv; eauto. }
  destruct (nh =? IPN_HOP_BY_HOP); [eapply arm_pre; eauto|].
  destruct (nh =? IPN_ROUTE); [eapply arm_pre; eauto|].
  destruct (nh =? IPN_DEST_OPTIONS); [eapply arm_pre; eauto|].
  destruct (nh =? IPN_FRAG); [eapply arm_pre; eauto|].
  destruct (nh =? IPN_AUTH); [eapply arm_pre; eauto|].
  discriminate.
Qed.

Lemma collect_pre : forall fuel1 fuel2 u I W nh l l2,
  pre u I W ->
  collect fuel1 (mkExtIter nh I) = Ok l -> collect fuel2 (mkExtIter nh W) = Ok l2 ->
  exists l', l2 = l ++ l'.
Proof.
  induction fuel1 as [|f1 IH]; intros fuel2 u I W nh l l2 P H1 H2; [discriminate|].
  cbn [collect] in H1. binv H1 o Eo. destruct o as [(x, it)|].
  - binv H1 r Er. injection H1 as <-.
    destruct it as (nx, I').
    destruct (next_pre u I W nh x _ P Eo) as ((nx', W') & En & Enx & u' & P').
    cbn [xi_next_header xi_rest] in *. subst nx'.
    destruct fuel2 as [|f2]; [discriminate|]. cbn [collect] in H2. rewrite En in H2. cbn [bind] in H2.
    binv H2 r2 Er2. injection H2 as <-.
    destruct (IH f2 u' I' W' nx r r2 P' Er Er2) as (l' & ->). exists l'. reflexivity.
  - injection H1 as <-. exists l2. reflexivity.
Qed.

Lemma items_pre xs xs' l l2 : xpre xs xs' -> items xs = Ok l -> items xs' = Ok l2 -> exists l', l2 = l ++ l'.
Proof.
  intros (P & F) H1 H2. unfold items, into_iter in *.
  destruct (s_len (x6_slice xs) =? 0) eqn:Z.
  - (* nothing in front of the cut *)
    assert (l = []).
    { destruct (length (snd (x6_slice xs))) eqn:L; cbn [collect] in H1.
      - rewrite next_empty in H1 by lia. cbn [bind] in H1. now injection H1 as <-.
      - rewrite next_empty in H1 by lia. cbn [bind] in H1. now injection H1 as <-. }
    subst l. exists l2. reflexivity.
  - rewrite F in H2 by lia. eapply collect_pre; eauto.
Qed.

Definition v6pre (a b : res ipv6_slice) : Prop :=
  match a, b with
  | Ok v, Ok v' => v6_header v' = v6_header v /\ xpre (v6_exts v) (v6_exts v')
  | _, _ => True
  end.

Lemma v6_finish_pre s h : v6pre (Cut.v6_finish true s h) (Cut.v6_finish false s h).
Proof.
  unfold Cut.v6_finish.
  destruct (Ipv6HeaderSlice.payload_length h); cbn [bind]; try exact I.
  destruct (if (0 =? a) && (40 <? s_len s) then _ else _) as [[hp src]|e|b]; cbn [bind]; try exact I.
  destruct (Ipv6HeaderSlice.next_header h) as [nh|e|b]; cbn [bind]; try exact I.
  destruct (Cut.exts_from_slice true nh hp) as [[[xs n1] r1]|[l|c]|b] eqn:E1; cbn [bind]; try exact I.
  destruct (Cut.exts_from_slice false nh hp) as [[[xs' n2] r2]|[l|c]|b] eqn:E2; cbn [bind]; try exact I.
  unfold v6pre. cbn [v6_header v6_exts]. split; [reflexivity|]. eapply exts_cut_pre; eauto.
Qed.

Definition cutpre (a b : res sliced_packet) : Prop :=
  match a, b with
  | Ok sp, Ok sp' =>
      forall v, sp_net sp = Some (NtIpv6 v) ->
        exists v', sp_net sp' = Some (NtIpv6 v') /\ v6_header v' = v6_header v /\
                   xpre (v6_exts v) (v6_exts v')
  | _, _ => True
  end.

Lemma cutpre_same r : cutpre r r.
Proof.
  destruct r as [sp|e|b]; try exact I. intros v Hv. exists v. split; [exact Hv|]. split; [reflexivity|].
  unfold xpre. split; [|reflexivity].
  unfold pre. repeat split; try lia. unfold s_len. now rewrite Lists.take_len.
Qed.

Lemma dispatch_pre c c' p p' v v' :
  sp_net (c_result c) = Some (NtIpv6 v) -> sp_net (c_result c') = Some (NtIpv6 v') ->
  v6_header v' = v6_header v -> xpre (v6_exts v) (v6_exts v') ->
  cutpre (transport_dispatch c p) (transport_dispatch c' p').
Proof.
  intros Hc Hc' Hh Hx.
  destruct (transport_dispatch c p) as [sp|e|b] eqn:E1; try exact I.
  destruct (transport_dispatch c' p') as [sp'|e|b] eqn:E2; try exact I.
  apply dispatch_net in E1. apply dispatch_net in E2.
  intros w Hw. rewrite E1, Hc in Hw. injection Hw as <-.
  exists v'. split; [now rewrite E2|]. auto.
Qed.

Lemma slice_ipv6_pre c s : cutpre (Cut.slice_ipv6 true c s) (Cut.slice_ipv6 false c s).
Proof.
  unfold Cut.slice_ipv6, Cut.v6_from_slice.
  destruct (Ipv6HeaderSlice.from_slice s) as [h|e|b]; cbn [bind map_len_err]; try (apply cutpre_same).
  pose proof (v6_finish_pre s h) as A. unfold v6pre in A.
  destruct (Cut.v6_finish true s h) as [v|[l|ce]|b]; cbn [map_len_err bind]; try exact I.
  destruct (Cut.v6_finish false s h) as [v'|[l|ce]|b]; cbn [map_len_err bind]; try exact I;
    try (destruct (ptr_diff _ _); cbn [bind]; [destruct (transport_dispatch _ _)|..]; exact I).
  destruct A as (Hh & Hx).
  destruct (ptr_diff (ipp_slice (v6_payload v)) s) as [d|e|b]; cbn [bind]; try exact I.
  destruct (ptr_diff (ipp_slice (v6_payload v')) s) as [d'|e|b]; cbn [bind];
    try (destruct (transport_dispatch _ _); exact I).
  eapply dispatch_pre; try reflexivity; auto.
Qed.

Lemma slice_ip_pre c s : cutpre (Cut.slice_ip true c s) (Cut.slice_ip false c s).
Proof.
  unfold Cut.slice_ip, Cut.ip_from_slice.
  destruct (s_len s =? 0); [apply cutpre_same|].
  destruct (rdU s 0) as [b0|e|b]; cbn [bind map_len_err]; try (apply cutpre_same).
  destruct (N.shiftr b0 4 =? 4); [apply cutpre_same|].
  destruct (N.shiftr b0 4 =? 6); [|apply cutpre_same].
  destruct (s_len s <? 40); [apply cutpre_same|].
  destruct (subU s 0 40) as [h|e|b]; cbn [bind map_len_err]; try (apply cutpre_same).
  pose proof (v6_finish_pre s h) as A. unfold v6pre in A.
  destruct (Cut.v6_finish true s h) as [v|[l|ce]|b]; cbn [map_len_err bind]; try exact I.
  destruct (Cut.v6_finish false s h) as [v'|[l|ce]|b]; cbn [map_len_err bind IpSlice.payload]; try exact I;
    try (destruct (ptr_diff _ _); cbn [bind]; [destruct (transport_dispatch _ _)|..]; exact I).
  destruct A as (Hh & Hx).
  destruct (ptr_diff (ipp_slice (v6_payload v)) s) as [d|e|b]; cbn [bind]; try exact I.
  destruct (ptr_diff (ipp_slice (v6_payload v')) s) as [d'|e|b]; cbn [bind];
    try (destruct (transport_dispatch _ _); exact I).
  eapply dispatch_pre; try reflexivity; auto.
Qed.

Definition cut_items_prefix (a b : res sliced_packet) : Prop :=
  forall sp v sp', a = Ok sp -> sp_net sp = Some (NtIpv6 v) -> b = Ok sp' ->
  exists v', sp_net sp' = Some (NtIpv6 v') /\ v6_header v' = v6_header v /\
    forall l l2, items (v6_exts v) = Ok l -> items (v6_exts v') = Ok l2 -> exists l', l2 = l ++ l'.

Lemma prefix_of_cutpre a b : cutpre a b -> cut_items_prefix a b.
Proof.
  intros R sp v sp' -> Hv ->. destruct (R v Hv) as (v' & Hv' & Hh & Hx).
  exists v'. split; [exact Hv'|]. split; [exact Hh|]. intros l l2. now apply items_pre.
Qed.

Theorem cut_prefix_of_slicing bs et :
  cut_items_prefix (Cut.from_ethernet true bs) (SlicedPacket.from_ethernet bs) /\
  cut_items_prefix (Cut.from_ether_type true et bs) (SlicedPacket.from_ether_type et bs) /\
  cut_items_prefix (Cut.from_ip true bs) (SlicedPacket.from_ip bs).
Proof.
  split; [|split]; apply prefix_of_cutpre.
  - rewrite <- cut_false_from_ethernet. apply cut_ethernet_rel; [apply cutpre_same|apply slice_ipv6_pre].
  - rewrite <- cut_false_from_ether_type. apply cut_ether_type_rel; [apply cutpre_same|apply slice_ipv6_pre].
  - rewrite <- cut_false_from_ip. apply slice_ip_pre.
Qed.
