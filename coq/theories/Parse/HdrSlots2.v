(* Parse/HdrSlots2.v -- property C04: the slot-by-slot agreement of the struct Ipv6Extensions
   with the extension headers of the (cut) slicing result, lifted from the extension layer over
   IpHeaders::{from_ipv6_slice, from_slice}; over whole packets it is read off the lock-step of
   HdrProofs3.v with net6_rel as the relation carried for the IPv6 network layer (verdicts,
   errors, other layers: C04_headers_eq_slices). *)
From Coq Require Import ZArith Lia ZifyN ZifyBool List.
From EP Require Import Parse.AccessProofs.
From EP Require Import Base.Bytes Parse.Types Parse.Slices Parse.Cursor Parse.View
  Parse.WireSpec Parse.Repr Parse.StrictProofs Parse.Access Parse.HdrModel Parse.HdrView Parse.HdrCut
  Parse.HdrProofs Parse.HdrProofs2 Parse.HdrProofs3 Parse.HdrSlots.
Import ListNotations.
Import SlicedPacketCursor.

Local Open Scope N_scope.

(* struct side: IPv6 header slice hd + struct x; slicing side: the Ipv6Slice v *)
Definition net6_rel (hd : slice) (x : exts6) (v : ipv6_slice) : Prop :=
  v6_header v = hd /\
  exists nh0, Ipv6HeaderSlice.next_header hd = Ok nh0 /\
    ext_rel6 nh0 x (v6_exts v) /\ s_off (x6_slice (v6_exts v)) = s_off hd + 40.

Definition slot_rel (h : res (ip_headers * ip_payload)) (r : res ipv6_slice) : Prop :=
  match h, r with
  | Ok (ih, p), Ok v => exists x, ih = IhV6 (v6_header v) x /\ net6_rel (v6_header v) x v
  | _, _ => True
  end.

Lemma v6_tail_slots header hp src :
  bytes_ok (snd hp) -> s_len header = 40 -> s_off hp = s_off header + 40 ->
  slot_rel (IpHeaders.v6_exts header hp src) (cut_v6_tail header hp src).
Proof.
  intros Hok H40 Hoff. unfold IpHeaders.v6_exts, cut_v6_tail, Ipv6HeaderSlice.next_header.
  rdok header 6.
  destruct (Ipv6Extensions.from_slice v hp) as [[[x nh'] r]|[l|ce]|b] eqn:Eh; cbn [bind]; try exact I.
  destruct (Ipv6Extensions.is_fragmenting_payload x) as [fr|e|b]; cbn [bind]; try exact I.
  destruct (Cut.exts_from_slice true v hp) as [[[xs nh''] r']|[l'|ce']|b'] eqn:Es; cbn [bind]; try exact I.
  destruct (exts_slots v hp x nh' r xs nh'' r' Hok Eh Es) as (R & Off).
  unfold slot_rel. cbn [v6_header v6_exts]. exists x. split; [reflexivity|].
  unfold net6_rel. cbn [v6_header v6_exts]. split; [reflexivity|]. exists v.
  unfold Ipv6HeaderSlice.next_header. split; [exact E|]. split; [exact R|]. now rewrite Off.
Qed.

Lemma dispatch_net c p sp : transport_dispatch c p = Ok sp -> sp_net sp = sp_net (c_result c).
Proof.
  unfold transport_dispatch, slice_icmp4, slice_udp, slice_tcp, slice_icmp6.
  destruct (ipp_fragmented p); [intros H; now injection H as <-|].
  destruct (ipp_number p =? IPN_ICMP). { intros H. binv H r E. now injection H as <-. }
  destruct (ipp_number p =? IPN_UDP). { intros H. binv H r E. now injection H as <-. }
  destruct (ipp_number p =? IPN_TCP). { intros H. binv H r E. now injection H as <-. }
  destruct (ipp_number p =? IPN_ICMPV6). { intros H. binv H r E. now injection H as <-. }
  intros H; now injection H as <-.
Qed.

(* the two IPv6 tails establish net6_rel: what the lock-step of HdrProofs3.v asks for *)
Lemma net6_tail : tail_sound net6_rel.
Proof.
  intros header hp src ih p v Hok H40 Hoff Eh Ec.
  pose proof (v6_tail_slots header hp src Hok H40 Hoff) as A. rewrite Eh, Ec in A.
  destruct A as (x & -> & R). intros hd x' v' X V. injection X as <- <-. now injection V as <-.
Qed.

(* Whenever struct decoding returns an IPv6 network layer (header slice hd, struct x), the
   cut slicing result sp is Ok with an IPv6 network layer v on the same header slice, and the
   list l of extension headers that iterating `v.extensions()` yields satisfies: the slots of
   x hold exactly l (slots_hold); l are consecutive pieces of the extension area of v, each of
   the kind announced in front of it, the first by the IPv6 header's next_header field (chain);
   the area is the window of exts6_len x bytes directly behind the 40 byte header. *)
Definition slots_in_order (h : res hpacket) (s : res sliced_packet) : Prop :=
  forall hp hd x, h = Ok hp -> h_net hp = Some (HnIp (IhV6 hd x)) ->
  exists sp v first l nh_end,
    s = Ok sp /\ sp_net sp = Some (NtIpv6 v) /\ v6_header v = hd /\
    Ipv6HeaderSlice.next_header hd = Ok first /\
    Ipv6ExtIterA.items (v6_exts v) = Ok l /\
    slots_hold x l /\
    chain (x6_slice (v6_exts v)) 0 first l (exts6_len x) nh_end /\
    win_of (x6_slice (v6_exts v)) = (s_off hd + 40, exts6_len x).

Lemma rdU_not_err s i e : rdU s i <> Err e.
Proof. unfold rdU. destruct (rd (snd s) i); discriminate. Qed.

Lemma hview_of_not_err p e : hview_of p <> Err e.
Proof.
  unfold hview_of. destruct (h_net p) as [[[h a|h x]|a]|]; cbn [hview_net bind]; try discriminate.
  unfold Ipv6HeaderSlice.next_header.
  destruct (rdU h 6) as [v|e'|b] eqn:E; cbn [bind]; try discriminate; [|now apply rdU_not_err in E].
  unfold Ipv6Extensions.is_fragmenting_payload.
  destruct (x_frag x) as [f|]; cbn [bind]; try discriminate.
  unfold Ipv6FragmentHeaderSlice.is_fragmenting_payload, Ipv6FragmentHeaderSlice.more_fragments,
    Ipv6FragmentHeaderSlice.fragment_offset.
  destruct (rdU f 3) as [v3|e'|b] eqn:E3; cbn [bind]; try discriminate; [|now apply rdU_not_err in E3].
  destruct (rdU f 2) as [v2|e'|b] eqn:E2; cbn [bind]; try discriminate. now apply rdU_not_err in E2.
Qed.

Lemma hagree_ok hp s : hagree (Ok hp) s -> exists sp, s = Ok sp.
Proof.
  intros (A & B). cbn [hvres_of_h] in A, B.
  destruct (hview_of hp) as [v|e|b] eqn:E; [|now apply hview_of_not_err in E|now destruct (B b)].
  destruct s as [sp|e|b]; [eauto| |]; cbn [hvres_of_s] in A; discriminate A.
Qed.

Lemma slots_of_rel h s : hagree h s /\ pk6_rel net6_rel h s -> slots_in_order h s.
Proof.
  intros (A & R) hp hd x -> Hn. destruct (hagree_ok _ _ A) as (sp & ->).
  destruct (R hd x Hn) as (v & Ev & Hv & nh0 & Enh & (l & nh' & Hi & Hs & Hc & Hl) & Off).
  exists sp, v, nh0, l, nh'. rewrite <- Hl.
  split; [reflexivity|]. split; [exact Ev|]. split; [exact Hv|]. split; [exact Enh|].
  split; [exact Hi|]. split; [exact Hs|]. split; [exact Hc|].
  unfold win_of. now rewrite Off.
Qed.

Theorem hdr_slots_in_order bs et : bytes_ok bs ->
  slots_in_order (PacketHeaders.from_ethernet_slice bs) (Cut.from_ethernet true bs) /\
  slots_in_order (PacketHeaders.from_ether_type et bs) (Cut.from_ether_type true et bs) /\
  slots_in_order (PacketHeaders.from_ip_slice bs) (Cut.from_ip true bs).
Proof.
  intros Hok. split; [|split].
  - exact (slots_of_rel _ _ (lockstep_ethernet net6_rel net6_tail bs Hok)).
  - exact (slots_of_rel _ _ (lockstep_ether_type net6_rel net6_tail et bs Hok)).
  - destruct (F11 bs) eqn:Hf.
    + destruct (hdr_f11_both_err bs Hf) as ((e & E) & _). intros hp hd x H. rewrite E in H. discriminate H.
    + exact (slots_of_rel _ _ (lockstep_ip net6_rel net6_tail bs Hok Hf)).
Qed.

(* the struct is determined by the chain, slot by slot *)
Lemma holds_unique x x' L : holds x L -> holds x' L -> forall k, slot_get x k = slot_get x' k.
Proof.
  intros (ND & H) (_ & H') k.
  destruct (slot_get x k) as [s|] eqn:E; destruct (slot_get x' k) as [s'|] eqn:E'; auto.
  - apply H in E. apply H' in E'. f_equal.
    clear H H'. induction L as [|(k0, s0) L IH]; [destruct E|].
    cbn [map fst] in ND. inversion ND as [|? ? Hn ND']; subst.
    destruct E as [E|E]; destruct E' as [E'|E'].
    + congruence.
    + injection E as -> ->. exfalso. apply Hn. apply in_map_iff. now exists (k, s').
    + injection E' as -> ->. exfalso. apply Hn. apply in_map_iff. now exists (k, s).
    + now apply IH.
  - apply H in E. apply H' in E. congruence.
  - apply H' in E'. apply H in E'. congruence.
Qed.

Theorem slots_hold_unique x x' l : slots_hold x l -> slots_hold x' l -> x = x'.
Proof.
  intros A B. pose proof (holds_unique _ _ _ A B) as U.
  destruct x as [a1 a2 a3 a4 a5 a6], x' as [b1 b2 b3 b4 b5 b6]. pose proof (U SHbh). pose proof (U SDest). pose proof (U SRoute). pose proof (U SFdest).
  pose proof (U SFrag). pose proof (U SAuth). cbn [slot_get x_hbh x_dest x_route x_fdest x_frag x_auth] in *.
  congruence.
Qed.

(* consecutive windows behind the IPv6 header *)
Theorem chain_windows W l first k' nh' : chain W 0 first l k' nh' ->
  wchain first (s_off W) l nh' (s_off W + k').
Proof. intros C. apply chain_wchain in C. now rewrite N.add_0_r in C. Qed.
