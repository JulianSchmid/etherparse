(* Parse/WireAccepts.v -- the CONVERSE of WireNested / WireDesc / WireDispatch:

     nested bs v -> desc bs v -> dispatch bs e v -> wire_e bs = VOk v

   A view that is declaratively well formed for the bytes -- windows nested the way the
   formats say (`nested`), IP payload descriptors read off the octets (`desc`), layer kinds and
   content rules as documented (`dispatch`) -- IS the answer of the reference decoder.  With the
   three forward theorems: the decoder accepts bs with view v  <->  v is described, hence the
   described view is unique, and "accepted" is characterised by a description that is not a
   decoder (layer sequence clause and the converse of "fails exactly when": no described view
   exists exactly when the decoder rejects). *)
From EP Require Import Base.Bytes Parse.Types Parse.View Parse.WireSpec Parse.WireSpecFacts
  Parse.WireNested Parse.WireDesc Parse.WireDispatch.
From Coq Require Import ZArith Lia ZifyN ZifyBool.

Local Open Scope N_scope.

Section Accepts.
  Variable bs : bytes.
  Local Notation B := (B bs).
  Local Notation W := (W bs).

  Lemma tr_at_of ipn pos a t : tr_ok bs (pos, a) t -> tr_kind bs ipn t -> tr_at bs ipn pos a t.
  Proof.
    destruct t as [w|hl w|w|w]; cbn [tr_ok tr_kind tr_at fst snd]; cbv zeta.
    - intros (-> & H) ->. repeat split; apply H || lia.
    - intros (-> & -> & H) (-> & _). cbn [fst snd] in *. repeat split; lia.
    - intros (-> & H) (-> & Hts). cbn [fst snd] in *. repeat split; auto.
    - intros (-> & H) ->. cbn [fst snd] in *. repeat split; lia.
  Qed.

  Lemma wire_transport_conv p nn ip src pos lim t :
    v_transport p = None -> net_payload (Some nn) = Some ip -> vip_win ip = (pos, lim - pos) ->
    tr_nested bs (Some nn) t -> tr_dispatch bs (Some nn) t ->
    wire_transport bs (with_net p nn) (vip_number ip) (vip_frag ip) src pos lim
      = VOk (mkVPacket (v_link p) (v_exts p) (Some nn) t).
  Proof.
    intros Htr Hip Hwin. unfold tr_nested, tr_dispatch, no_tr_cause. rewrite Hip, Hwin.
    intros Hn Hd. apply wire_transport_iff. destruct t as [t|].
    - right. split; [apply Hn|]. exists t. split; [reflexivity|exact (tr_at_of _ _ _ _ (proj2 Hn) (proj2 Hd))].
    - left. split; [|exact Hd]. unfold with_net. rewrite Htr. reflexivity.
  Qed.

  Lemma wire_ipv4_conv p src pos lim h a ip t :
    v_transport p = None -> pos <= lim ->
    net_ok bs (pos, lim - pos) (VIpv4 h a ip) -> net_desc bs (VIpv4 h a ip) ->
    ipv4_rules bs h a ->
    tr_nested bs (Some (VIpv4 h a ip)) t -> tr_dispatch bs (Some (VIpv4 h a ip)) t ->
    wire_ipv4 bs p src pos lim = VOk (mkVPacket (v_link p) (v_exts p) (Some (VIpv4 h a ip)) t).
  Proof.
    intros Htr Hle Hn Hd Hr Ht1 Ht2.
    destruct h as [hp hl]. destruct ip as [num fr sr [wp wl]].
    cbn [net_ok net_desc fst snd vip_win vip_src vip_number vip_frag] in Hn, Hd. cbv zeta in Hn.
    unfold ipv4_rules in Hr. cbn [fst] in Hr. cbv zeta in Hr. unfold wend in Hn. cbn [fst snd] in Hn.
    destruct Hn as (-> & H2 & H3 & H4 & H5 & H6 & ->). destruct Hd as (Hnum & ->).
    destruct Hr as (Hv & Hi & Ha).
    assert (Hauth : ipv4_auth bs pos hl (pos + W (pos + 2)) a wp num).
    { destruct a as [[ap al]|]; cbn [fst snd ipv4_auth] in *.
      - destruct H5 as (-> & -> & ->). repeat split; try apply Ha; auto; lia.
      - repeat split; auto. }
    assert (Hge : pos + hl <= wp) by (destruct a as [[ap al]|]; cbn [ipv4_auth snd] in Hauth; lia).
    assert (Hwl : wl = pos + W (pos + 2) - wp) by lia. subst wl.
    apply wire_ipv4_iff. rewrite <- H2. split; [exact Hv|]. split; [exact Hi|]. split; [lia|].
    apply wire_ipv4_body_iff. split; [lia|]. exists a, wp, num. split; [exact Hauth|].
    eapply wire_transport_conv with (ip := mkVIp num _ _ _); [exact Htr|reflexivity|reflexivity|exact Ht1|exact Ht2].
  Qed.

  (* one header of a tiled, walked window *)
  Lemma chain_step first f nh pos e frag next fr :
    pos < e -> chain_rules bs (S f) first nh pos e -> chain_end bs (S f) nh pos e frag = (next, fr) ->
    exists l frag', chain_hdr bs first nh pos l frag frag' /\ pos + l <= e /\
      chain_rules bs f false (B pos) (pos + l) e /\ chain_end bs f (B pos) (pos + l) e frag' = (next, fr).
  Proof.
    intros He. cbn [chain_rules]. destruct (N.leb_spec e pos); [lia|].
    intros (Hx & Hfirst & Hah & Hin & Hrec) Hce.
    assert (Hh := proj2 (chain_hdr_iff bs first nh pos _ frag _) (conj Hx (conj Hfirst (conj Hah (conj eq_refl eq_refl))))).
    rewrite (chain_end_hdr bs _ _ _ _ _ _ _ _ Hh He) in Hce. eauto 7.
  Qed.

  Lemma wire_chain_conv : forall fuel2 fuel src pos lim nh frag e next fr,
    chain_rules bs fuel2 false nh pos e -> chain_end bs fuel2 nh pos e frag = (next, fr) ->
    e <= lim -> (N.to_nat (lim - pos) < fuel)%nat ->
    wire_chain bs fuel src pos lim nh frag = ChOk e next fr.
  Proof.
    induction fuel2 as [|f2 IH]; intros [|f] src pos lim nh frag e next fr Hr Hce Hle Hf;
      [contradiction|contradiction|lia|].
    apply wire_chain_iff. destruct (N.le_gt_cases e pos) as [C|C].
    - left. cbn [chain_rules chain_end] in Hr, Hce. destruct (N.leb_spec e pos); [|lia].
      destruct Hr as (-> & Hne). injection Hce as <- <-. auto.
    - right. destruct (chain_step _ _ _ _ _ _ _ _ C Hr Hce) as (l & frag' & Hh & Hl & Hr' & Hce').
      pose proof (chain_hdr_len _ _ _ _ _ _ _ Hh) as H8.
      exists l, frag'. split; [exact Hh|]. split; [lia|]. apply (IH _ _ _ _ _ _ _ _ _ Hr' Hce' Hle). lia.
  Qed.

  Lemma wire_exts_conv f2 fuel src pos lim nh e next fr :
    chain_rules bs f2 true nh pos e -> chain_end bs f2 nh pos e false = (next, fr) ->
    e <= lim -> (N.to_nat (lim - pos) < fuel)%nat ->
    wire_exts bs fuel src pos lim nh = ChOk e next fr.
  Proof.
    intros Hr Hce Hle Hf. apply wire_exts_iff. destruct (N.eq_dec nh 0) as [->|N0].
    - left. split; [reflexivity|]. destruct f2 as [|f2]; [contradiction|].
      assert (C : pos < e).
      { cbn [chain_rules] in Hr. destruct (N.leb_spec e pos); [|assumption]. elim (proj2 Hr). now left. }
      destruct (chain_step _ _ _ _ _ _ _ _ C Hr Hce) as (l & frag' & [(_ & -> & ->)|[?|?]] & Hl & Hr' & Hce');
        [|lia..]. split; [lia|]. apply (wire_chain_conv _ _ _ _ _ _ _ _ _ _ Hr' Hce' Hle). lia.
    - right. split; [exact N0|].
      exact (wire_chain_conv _ _ _ _ _ _ _ _ _ _ (chain_rules_first bs true false _ _ _ _ N0 Hr) Hce Hle Hf).
  Qed.

  Lemma wire_ipv6_conv p src pos lim h first fr x ip t :
    v_transport p = None -> pos <= lim ->
    net_ok bs (pos, lim - pos) (VIpv6 h first fr x ip) -> net_desc bs (VIpv6 h first fr x ip) ->
    ipv6_rules bs h first x ip ->
    tr_nested bs (Some (VIpv6 h first fr x ip)) t -> tr_dispatch bs (Some (VIpv6 h first fr x ip)) t ->
    wire_ipv6 bs p src pos lim
      = VOk (mkVPacket (v_link p) (v_exts p) (Some (VIpv6 h first fr x ip)) t).
  Proof.
    intros Htr Hle Hn Hd Hr Ht1 Ht2.
    destruct h as [hp hl]. destruct x as [xp xl]. destruct ip as [num frg sr [wp wl]].
    unfold ipv6_rules in Hr. unfold wend in Hn.
    cbn [net_ok net_desc fst snd vip_win vip_src vip_number vip_frag] in Hn, Hd, Hr. cbv zeta in Hn, Hd, Hr.
    destruct Hn as (-> & -> & -> & -> & N5 & N6 & N7). destruct Hd as (Hce & -> & Hsrc).
    destruct Hr as (Hv & -> & Hc & Hne). unfold wend in *. cbn [fst snd] in *.
    (* the part behind the length checks, for the limit and length source the view records *)
    assert (T : forall esrc, wire_ipv6_tail bs p esrc sr pos (pos + 40 + xl + wl)
                = VOk (mkVPacket (v_link p) (v_exts p)
                         (Some (VIpv6 (pos, 40) (if xl =? 0 then None else Some (B (pos + 6))) frg
                                  (pos + 40, xl) (mkVIp num frg sr (pos + 40 + xl, wl)))) t)).
    { intros esrc. apply wire_ipv6_tail_iff. exists (pos + 40 + xl), num, frg.
      split; [apply (wire_exts_conv _ _ _ _ _ _ _ _ _ Hc Hce); lia|].
      replace (pos + 40 + xl =? pos + 40) with (xl =? 0) by lia.
      replace (pos + 40 + xl - (pos + 40)) with xl by lia.
      replace (pos + 40 + xl + wl - (pos + 40 + xl)) with wl by lia.
      eapply wire_transport_conv with (ip := mkVIp num frg sr _);
        [exact Htr|reflexivity|cbn [vip_win]; f_equal; lia|exact Ht1|exact Ht2]. }
    apply wire_ipv6_iff. split; [lia|]. split; [exact Hv|]. apply wire_ipv6_body_iff.
    destruct (N.eq_dec (W (pos + 4)) 0) as [E|E]; [destruct (N.lt_ge_cases 40 (lim - pos)) as [L|L]|].
    - left. split; [exact E|]. split; [exact L|]. specialize (N6 E).
      assert (Es : sr = LsSlice) by (rewrite Hsrc, E; replace (0 <? xl + wl) with true by lia; reflexivity).
      clear Hsrc. subst sr.
      replace lim with (pos + 40 + xl + wl) by lia. apply T.
    - right. split; [lia|]. split; [lia|]. specialize (N6 E).
      assert (Es : sr = LsIpv6HeaderPayloadLen)
        by (rewrite Hsrc; replace (0 <? xl + wl) with false by lia; rewrite andb_false_r; reflexivity).
      clear Hsrc. subst sr.
      replace (pos + 40 + W (pos + 4)) with (pos + 40 + xl + wl) by lia. apply T.
    - right. split; [lia|]. destruct N7 as (N8 & Es); [lia|]. clear Hsrc. subst sr. split; [lia|].
      replace (pos + 40 + W (pos + 4)) with (pos + 40 + xl + wl) by lia. apply T.
  Qed.

  Definition net_given (cur : window) (nn : option vnet) : Prop :=
    match nn with
    | Some n => net_ok bs cur n /\ net_desc bs n /\ net_rules bs n
    | None => True
    end.

  Lemma mk_eta p : v_net p = None -> v_transport p = None ->
    p = mkVPacket (v_link p) (v_exts p) None None.
  Proof. destruct p; cbn. intros -> ->. reflexivity. Qed.

  Lemma tr_none_of_no_payload nn t :
    net_payload nn = None -> tr_dispatch bs nn t -> t = None.
  Proof.
    unfold tr_dispatch. intros ->. destruct t; [contradiction|reflexivity].
  Qed.

  Lemma wire_ip_conv p src pos lim nn t :
    v_transport p = None -> pos <= lim ->
    net_given (pos, lim - pos) nn -> ip_dispatch bs nn ->
    tr_nested bs nn t -> tr_dispatch bs nn t ->
    wire_ip bs p src pos lim = VOk (mkVPacket (v_link p) (v_exts p) nn t).
  Proof.
    intros Htr Hle Hg Hi Ht1 Ht2. apply wire_ip_iff.
    destruct nn as [[h a ip|h first fr x ip|w]|]; cbn [ip_dispatch net_given net_rules] in *;
      try contradiction; destruct Hg as (Hn & Hd & Hr).
    - left. now apply wire_ipv4_conv.
    - right. now apply wire_ipv6_conv.
  Qed.

  Lemma wire_net_conv p et src pos lim nn t :
    v_net p = None -> v_transport p = None -> pos <= lim ->
    net_given (pos, lim - pos) nn ->
    match nn with Some n => net_kind et n | None => ~ net_type et end ->
    tr_nested bs nn t -> tr_dispatch bs nn t ->
    wire_net bs p et src pos lim = VOk (mkVPacket (v_link p) (v_exts p) nn t).
  Proof.
    intros Hnp Htr Hle Hg Hk Ht1 Ht2. apply wire_net_iff.
    destruct nn as [[h a ip|h first fr x ip|w]|]; cbn [net_given net_rules net_kind] in *.
    - destruct Hg as (Hn & Hd & Hr). right; left. split; [exact Hk|]. now apply wire_ipv4_conv.
    - destruct Hg as (Hn & Hd & Hr). right; right; left. split; [exact Hk|]. now apply wire_ipv6_conv.
    - destruct Hg as (Hn & _ & _). left. split; [exact Hk|].
      rewrite (tr_none_of_no_payload (Some (VArp w)) t eq_refl Ht2).
      destruct w as [wp wl]. cbn [net_ok fst snd] in Hn. unfold wend in Hn. cbn [fst snd] in Hn.
      destruct Hn as (-> & -> & H3). apply wire_arp_iff. split; [lia|].
      unfold with_net. rewrite Htr. reflexivity.
    - right; right; right. split; [exact Hk|].
      rewrite (tr_none_of_no_payload None t eq_refl Ht2). symmetry. now apply mk_eta.
  Qed.

  Definition ann_net_ok (ann : option N) (nn : option vnet) : Prop :=
    match nn with
    | Some n => exists et, ann = Some et /\ net_kind et n
    | None => match ann with None => True | Some et => link_ext_type et \/ ~ net_type et end
    end.

  Lemma vlan_type_is_vlan et : vlan_type et -> is_vlan et = true.
  Proof. unfold vlan_type, is_vlan. lia. Qed.

  Lemma stop_conv p xs nn t ann :
    v_net p = None -> v_transport p = None ->
    exts_dispatch bs ann xs -> (ann = None \/ exists et, ann = Some et /\ link_ext_type et /\ xs = []) ->
    ann_net_ok (exts_announced bs ann xs) nn -> tr_dispatch bs nn t ->
    p = mkVPacket (v_link p) (v_exts p ++ xs) nn t.
  Proof.
    intros Hn Ht Hx Hs Ha Htr.
    assert (Exs : xs = []).
    { destruct Hs as [->|(et & _ & _ & E)]; [|exact E]. destruct xs; [reflexivity|contradiction]. }
    subst xs. cbn [exts_announced] in Ha. rewrite app_nil_r.
    assert (Enn : nn = None).
    { destruct nn as [n|]; [|reflexivity]. exfalso. destruct Ha as (et' & E & Hk).
      destruct Hs as [->|(et & -> & Hl & _)]; [discriminate|]. injection E as <-.
      exact (net_type_not_link_ext _ (net_kind_type _ _ Hk) Hl). }
    subst nn. rewrite (tr_none_of_no_payload None t eq_refl Htr). now apply mk_eta.
  Qed.

  Lemma wire_ether_conv : forall xs cap p et src pos lim nn t,
    v_net p = None -> v_transport p = None -> pos <= lim ->
    exts_nested bs (pos, lim - pos) xs -> exts_dispatch bs (Some et) xs ->
    (length xs <= cap)%nat ->
    (forall et', exts_announced bs (Some et) xs = Some et' -> link_ext_type et' -> length xs = cap) ->
    net_given (exts_final (pos, lim - pos) xs) nn ->
    ann_net_ok (exts_announced bs (Some et) xs) nn ->
    tr_nested bs nn t -> tr_dispatch bs nn t ->
    wire_ether bs cap p et src pos lim = VOk (mkVPacket (v_link p) (v_exts p ++ xs) nn t).
  Proof.
    induction xs as [|x r IH]; intros cap p et src pos lim nn t Hnp Htr Hle Hxn Hxd Hlen Hcap Hg Ha Ht1 Ht2.
    - cbn [exts_final exts_announced length] in *.
      destruct (link_ext_cases et) as [Hv|[Hm|Hx]].
      3:{ destruct Hx as (Hx & Hne). rewrite (wire_ether_net bs _ _ _ _ _ _ Hx Hne), app_nil_r.
          apply wire_net_conv; auto. destruct nn as [n|]; cbn [ann_net_ok] in Ha.
          - destruct Ha as (et' & E & Hk). injection E as <-. exact Hk.
          - destruct Ha as [[Hl|Hl]|Hn]; [elim (is_vlan_false _ Hx Hl)|elim (Hne Hl)|exact Hn]. }
      (* the chain stops at a link extension type: the cap is used up *)
      all: assert (Hs : is_vlan et = true \/ et = 35045) by auto;
        assert (Hl : link_ext_type et) by (destruct Hs; [left; now apply is_vlan_true|right; assumption]);
        pose proof (Hcap et eq_refl Hl) as Hc; destruct cap; [|discriminate];
        rewrite wire_ether_stop by exact Hs; f_equal;
        apply (stop_conv p [] nn t (Some et) Hnp Htr I); [|exact Ha|exact Ht2];
        right; exists et; auto.
    - cbn [exts_nested exts_dispatch exts_final exts_announced length] in *.
      destruct Hxn as (Hok & Hrn). destruct Hxd as (Hk & Hr & Hrd).
      destruct cap as [|c]; [lia|].
      replace (v_exts p ++ x :: r) with ((v_exts p ++ [x]) ++ r)
        by (rewrite <- app_assoc; reflexivity).
      assert (Hcap' : forall et', exts_announced bs (ext_announces bs x) r = Some et' ->
                                  link_ext_type et' -> length r = c).
      { intros et' E Hl. specialize (Hcap et' E Hl). lia. }
      assert (Hlen' : (length r <= c)%nat) by lia.
      destruct x as [w|[hp hl] pl].
      + cbn [ext_ok ext_kind] in Hok, Hk. destruct Hok as (-> & H4). cbn [snd] in H4.
        apply (wire_ether_vlan bs _ _ _ _ _ _ _ (vlan_type_is_vlan _ Hk)). split; [exact H4|].
        assert (Ep : ext_payload (VVlan (pos, lim - pos)) = (pos + 4, lim - (pos + 4)))
          by (cbn [ext_payload fst snd]; f_equal; lia).
        rewrite Ep in *. cbn [ext_announces fst] in *.
        apply (IH c (with_ext p (VVlan (pos, lim - pos)))); auto. lia.
      + cbn [ext_ok ext_kind ext_rules fst snd] in Hok, Hk, Hr. cbv zeta in Hok. unfold wend in Hok.
        cbn [fst snd] in Hok. destruct Hok as (-> & -> & O3 & O4 & O5 & O6 & O7). destruct Hr as (R1 & R2).
        unfold macsec_type in Hk. subst et. pose proof (macsec_hl_bounds (B pos)) as Hge.
        apply wire_ether_macsec. cbv zeta.
        assert (Hhl : macsec_hl (B pos) <= lim - pos) by lia.
        assert (Hbody : 0 < B (pos + 1) mod 64 ->
                        macsec_hl (B pos) + macsec_body (B pos) (B (pos + 1) mod 64) <= lim - pos)
          by (intros A; specialize (O6 A); lia).
        destruct (macsec_lim_spec bs pos lim Hhl Hbody) as (_ & L0 & L1).
        assert (Elim : macsec_lim bs pos lim = fst (macsec_payload_win pl) + snd (macsec_payload_win pl)).
        { destruct (N.eq_0_gt_0_cases (B (pos + 1) mod 64)) as [A|A];
            [rewrite (L0 A), (O5 A)|rewrite (L1 A), (O6 A)]; lia. }
        rewrite Elim, O3. clear Elim L0 L1.
        replace (pos + macsec_hl (B pos) + snd (macsec_payload_win pl) - (pos + macsec_hl (B pos)))
          with (snd (macsec_payload_win pl)) by lia.
        split; [exact R1|]. split; [exact R2|]. split; [exact Hhl|]. split; [exact Hbody|].
        set (hl := macsec_hl (B pos)) in *. clearbody hl.
        destruct pl as [[ety esrc [ewp ewl]]|[mwp mwl]];
          cbn [macsec_payload_win vep_win vep_type vep_src fst snd ext_payload ext_announces] in *.
        * destruct O7 as (U1 & -> & ->). subst ewp. rewrite U1. cbn [N.eqb].
          replace (if 0 <? B (pos + 1) mod 64 then LsMacsecShortLength else LsSlice)
            with (if B (pos + 1) mod 64 =? 0 then LsSlice else LsMacsecShortLength)
            by (destruct (B (pos + 1) mod 64); reflexivity).
          assert (Ep : (pos + hl, ewl) = (pos + hl, pos + hl + ewl - (pos + hl))) by (f_equal; lia).
          rewrite Ep in Hrn, Hg.
          apply (IH c (with_ext p _)); auto; lia.
        * subst mwp. replace ((B pos / 4) mod 4 =? 0) with false by lia.
          symmetry. apply (stop_conv (with_ext p _) r nn t None Hnp Htr Hrd); [left; reflexivity|exact Ha|exact Ht2].
  Qed.

  Lemma cap_of_net_dispatch ann k nn :
    net_dispatch bs ann k nn -> forall et', ann = Some et' -> link_ext_type et' -> k = 3%nat.
  Proof.
    unfold net_dispatch. intros H et' -> Hl. destruct nn as [n|].
    - exfalso. destruct H as ((et & E & Hk) & _). injection E as <-.
      exact (net_type_not_link_ext _ (net_kind_type _ _ Hk) Hl).
    - cbn [no_net_cause] in H. destruct H as [(_ & H)|(H & _)]; [exact H|contradiction].
  Qed.

  Lemma ann_net_ok_of_dispatch ann k nn : net_dispatch bs ann k nn -> ann_net_ok ann nn.
  Proof.
    unfold net_dispatch, ann_net_ok. destruct nn as [n|]; [intros (H & _); exact H|].
    destruct ann as [et|]; [|auto]. cbn [no_net_cause]. intros [(H & _)|(_ & H)]; auto.
  Qed.

  Lemma net_given_of cur nn :
    match nn with None => True | Some n => net_ok bs cur n end ->
    match nn with None => True | Some n => net_desc bs n end ->
    match nn with None => True | Some n => net_rules bs n end ->
    net_given cur nn.
  Proof. destruct nn; cbn [net_given]; auto. Qed.

  Lemma net_rules_of_dispatch ann k nn :
    net_dispatch bs ann k nn -> match nn with None => True | Some n => net_rules bs n end.
  Proof. unfold net_dispatch. destruct nn; [intros (_ & H); exact H|auto]. Qed.

  Lemma net_rules_of_ip nn :
    ip_dispatch bs nn -> match nn with None => True | Some n => net_rules bs n end.
  Proof. destruct nn as [[| |]|]; cbn [ip_dispatch net_rules]; auto. Qed.

  (* the three entry points that start in front of an ether type *)
  Lemma wire_ether_start e l et pos v :
    e <> EnIp -> first_type bs e = Some et -> v_link v = Some l ->
    link_payload bs (Some l) = (pos, len bs - pos) -> pos <= len bs ->
    nested bs v -> desc bs v -> dispatch bs e v ->
    wire_ether bs 3 (mkVPacket (Some l) [] None None) et LsSlice pos (len bs) = VOk v.
  Proof.
    intros He Hft Hl Hlp Hle (_ & Hx & Hn & Ht) Hd (_ & Dc & Dx & Dn & Dt). unfold desc in Hd.
    destruct v as [l' xs nn t]. cbn [v_link v_exts v_net v_transport] in *. subst l'.
    rewrite Hft in *. rewrite Hlp in *.
    assert (Dn' : net_dispatch bs (exts_announced bs (Some et) xs) (length xs) nn)
      by (destruct e; try exact Dn; contradiction).
    apply (wire_ether_conv xs 3 (mkVPacket (Some l) [] None None) et LsSlice pos (len bs) nn t
             eq_refl eq_refl Hle Hx Dx Dc).
    - exact (cap_of_net_dispatch _ _ _ Dn').
    - exact (net_given_of _ _ Hn Hd (net_rules_of_dispatch _ _ _ Dn')).
    - exact (ann_net_ok_of_dispatch _ _ _ Dn').
    - exact Ht.
    - exact Dt.
  Qed.
End Accepts.

Definition wire_of (bs : bytes) (e : entry) : vres :=
  match e with
  | EnEthernet => wire_ethernet bs
  | EnLinuxSll => wire_linux_sll bs
  | EnEtherType et => wire_ether_type bs et
  | EnIp => wire_from_ip bs
  end.

Theorem wire_accepts_iff bs e v :
  wire_of bs e = VOk v <-> nested bs v /\ desc bs v /\ dispatch bs e v.
Proof.
  split.
  - destruct e as [| |et|]; cbn [wire_of]; intros H.
    + split; [now apply wire_ethernet_nested|].
      split; [now apply wire_ethernet_desc|now apply wire_ethernet_dispatch].
    + split; [now apply wire_linux_sll_nested|].
      split; [now apply wire_linux_sll_desc|now apply wire_linux_sll_dispatch].
    + split; [exact (wire_ether_type_nested bs et v H)|].
      split; [exact (wire_ether_type_desc bs et v H)|exact (wire_ether_type_dispatch bs et v H)].
    + split; [now apply wire_from_ip_nested|].
      split; [now apply wire_from_ip_desc|now apply wire_from_ip_dispatch].
  - intros (Hn & Hd & Hx). pose proof Hn as (Hl & _ & Hnn & Ht). pose proof Hx as (Dl & _ & Dx & Dn & Dt).
    destruct e as [| |et|]; cbn [wire_of];
      destruct (v_link v) as [[w|h w|ep]|] eqn:El; cbn [link_dispatch link_ok] in Dl, Hl; try contradiction.
    + destruct Hl as (-> & H14). unfold wire_ethernet, n_bs. replace (len bs <? 14) with false by lia.
      apply (wire_ether_start bs EnEthernet _ _ 14 v); auto; discriminate.
    + destruct Hl as (-> & -> & H16). destruct Dl as (D0 & Dhw).
      unfold wire_linux_sll, n_bs. cbv zeta. replace (len bs <? 16) with false by lia.
      replace (7 <? W bs 0) with false by lia. rewrite Dhw. cbn [negb first_type] in *.
      destruct ((W bs 2 =? 1) && negb (sll_nonstandard (W bs 14))) eqn:E.
      * apply (wire_ether_start bs EnLinuxSll _ _ 16 v); auto; try discriminate.
        cbn [first_type]. rewrite E. reflexivity.
      * destruct v as [l xs nn t]. cbn [v_link v_exts v_net v_transport] in *. subst l. f_equal.
        apply (stop_conv bs (mkVPacket (Some (VLinuxSll (0, 16) (0, len bs))) [] None None) xs nn t None
                 eq_refl eq_refl Dx); [left; reflexivity| |exact Dt].
        exact (ann_net_ok_of_dispatch _ _ _ _ Dn).
    + destruct ep as [ety esrc ewin]. cbn [vep_type vep_src vep_win] in *. destruct Hl as (-> & ->). subst ety.
      unfold wire_ether_type, n_bs.
      apply (wire_ether_start bs (EnEtherType et) _ _ 0 v); auto; try discriminate; try lia.
      cbn [link_payload vep_win]. f_equal. lia.
    + destruct v as [l xs nn t]. cbn [v_link v_exts v_net v_transport first_type] in *. subst l.
      destruct xs as [|x r]; [|contradiction]. cbn [link_payload exts_final] in Hnn.
      unfold wire_from_ip, n_bs, empty_packet, desc in *. cbn [v_net] in Hd.
      assert (E0 : (0, len bs) = (0, len bs - 0)) by (f_equal; lia). rewrite E0 in Hnn.
      apply (wire_ip_conv bs (mkVPacket None [] None None) LsSlice 0 (len bs) nn t eq_refl (N.le_0_l _));
        auto. exact (net_given_of _ _ _ Hnn Hd (net_rules_of_ip _ _ Dn)).
Qed.

(* the described view of a byte string is unique *)
Corollary described_unique bs e v v' :
  nested bs v /\ desc bs v /\ dispatch bs e v ->
  nested bs v' /\ desc bs v' /\ dispatch bs e v' -> v = v'.
Proof.
  intros H H'. apply wire_accepts_iff in H. apply wire_accepts_iff in H'.
  rewrite H in H'. now injection H'.
Qed.

(* the reference decoder rejects exactly the byte strings that have no described view *)
Corollary wire_rejects_iff bs e :
  (forall v, wire_of bs e <> VOk v) <-> (forall v, ~ (nested bs v /\ desc bs v /\ dispatch bs e v)).
Proof.
  split; intros H v Hv; apply (H v); now apply wire_accepts_iff.
Qed.
