(* Parse/DelegatedTruth.v -- property C07 (truthful record AND direction of the length error) for
   the decoders whose error theorems are stated in Props/C05.v, by composition of those theorems;
   nothing new is modelled.

   * `headers_f11_record`: what PacketHeaders::from_ip_slice reports inside the class F11 (first
     nibble 4, fewer than 20 bytes) is exactly the record of the IPv4 reference decoder started
     at offset 0 (`wire_ipv4`), and it agrees with the nibble-dispatching reference decoder
     `wire_from_ip` in layer, offset and available bytes whenever that reports a length error.
   * `lax_stop_truthful`: every stop error of LaxSlicedPacket (3 entry points) is related to the
     rejection of the strict reference decoder for the same bytes.
   * `hdr_lax_stop_truthful`: the same for LaxPacketHeaders (3 entry points), from the side of
     the reference decoder.
   * `lax_stop_after_ip_fallback`: the stop error behind an IPv4 total length / IPv6 payload
     length fallback is the rejection of the RESUMED reference decoding (pwire2 `P2Fb`). *)
From EP Require Import Base.Bytes Parse.Types Parse.Cursor Parse.View Parse.WireSpec
  Parse.StrictProofs Parse.WireSpecFacts Parse.StrictFacts
  Parse.LaxSlices Parse.LaxCursor Parse.LaxView Parse.LaxProofs Parse.LaxFacts
  Parse.LaxWire Parse.LaxPrefix Parse.LaxWire2 Parse.LaxPrefixNet
  Parse.HdrModel Parse.HdrProofs3
  Parse.HdrErrFacts Parse.HdrLaxModel Parse.HdrLaxView Parse.HdrLaxCut Parse.LaxHdrPrefix2.
From Coq Require Import ZArith Lia ZifyN ZifyBool.

Local Open Scope N_scope.

Theorem headers_f11_record bs : bytes_ok bs -> F11 bs = true ->
  PacketHeaders.from_ip_slice bs = Err (ELen (mkLenError 20 (len bs) LsSlice LyIpv4Header 0)) /\
  wire_ipv4 bs empty_packet LsSlice 0 (len bs) =
    VErr (ELen (mkLenError 20 (len bs) LsSlice LyIpv4Header 0)) /\
  0 < len bs < 20 /\ B bs 0 / 16 = 4 /\
  wire_from_ip bs =
    VErr (if B bs 0 mod 16 <? 5 then EContent (CeIpIhl (B bs 0 mod 16))
          else ELen (mkLenError (B bs 0 mod 16 * 4) (len bs) LsSlice LyIpv4Header 0)) /\
  len_direction (mkLenError 20 (len bs) LsSlice LyIpv4Header 0).
Proof.
  intros Hok Hf. split; [now apply hdr_f11_error|].
  destruct bs as [|b0 r]; [discriminate|]. unfold F11 in Hf.
  apply andb_prop in Hf. destruct Hf as (V4 & L20).
  rewrite shr4_div16 in V4.
  assert (HB : B (b0 :: r) 0 = b0) by reflexivity.
  assert (Hl : 0 < len (b0 :: r)) by (rewrite len_cons; lia).
  split.
  { unfold wire_ipv4. rewrite N.sub_0_r. rewrite L20. reflexivity. }
  split; [lia|]. split; [rewrite HB; lia|]. split.
  - unfold wire_from_ip, wire_ip, n_bs. rewrite N.sub_0_r. rewrite HB.
    destruct (len (b0 :: r) =? 0) eqn:E0; [lia|]. rewrite V4.
    destruct (b0 mod 16 <? 5) eqn:Ei; [reflexivity|].
    destruct (len (b0 :: r) <? b0 mod 16 * 4) eqn:El; [reflexivity|lia].
  - unfold len_direction. cbn [le_layer le_len le_required]. lia.
Qed.

(* what a recorded stop error (e', tag ly) is, relative to the rejection e_ref of the strict
   reference decoder *)
Definition stop_truthful (e_ref e' : slice_error) (ly : layer) : Prop :=
  (* the same fault: C07 relation, fitting tag, direction *)
  (c07_truthful (VErr e') (VErr e_ref) /\ tag_ok e' ly /\
   (forall l, e' = ELen l -> len_direction l)) \/
  (* F11 group: both are faults of the IP header itself, at the same offset, tag IpHeader *)
  (ip_hdr_class e_ref /\ ip_hdr_class e' /\ ly = LyIpHeader /\
   (forall o o', err_off e_ref = Some o -> err_off e' = Some o' -> o = o')) \/
  (* e_ref is a documented length fallback: lax went on with the data that is there, the stop
     error stems from the resumed decoding (lax_stop_after_ip_fallback) *)
  fallback e_ref.

Lemma lax_same_truthful a b : lax_same a b -> c07_truthful (VErr b) (VErr a).
Proof.
  destruct a as [a|a], b as [b|b]; cbn; try contradiction.
  - intros (H1 & H2 & H3 & H4 & H5). exists a. repeat split; auto.
    intros NF. destruct H5 as [H|[H|(H & H')]]; auto.
    exfalso. apply NF. left. auto.
  - now intros ->.
Qed.

Lemma lax_same_direction a b :
  lax_same a b -> (forall l, a = ELen l -> len_direction l) -> forall l, b = ELen l -> len_direction l.
Proof.
  destruct a as [a|a], b as [b|b]; cbn; try contradiction; [|discriminate].
  intros (H1 & H2 & H3 & _) D l E. injection E as <-.
  exact (len_direction_ext b a (eq_sym H3) (eq_sym H1) (eq_sym H2) (D a eq_refl)).
Qed.

Lemma layer_eq_dec (a b : layer) : {a = b} + {a <> b}.
Proof. decide equality. Defined.

Lemma F10_dec bs e : F10_class bs e \/ ~ F10_class bs e.
Proof.
  unfold F10_class. destruct e as [l|c].
  - destruct (layer_eq_dec (le_layer l) LyIpv6Header) as [E|NE].
    + destruct (N.eq_dec (B bs (le_off l) / 16) 4) as [E4|N4].
      * left. right. right. exists l. auto.
      * right. intros [H|[H|(l' & H & _ & H4)]]; try discriminate. injection H as <-. contradiction.
    + right. intros [H|[H|(l' & H & HL & _)]]; try discriminate. injection H as <-. contradiction.
  - destruct c; try (right; intros [H|[H|(l' & H & _)]]; discriminate).
    + destruct (N.eq_dec v 6) as [->|N6]; [left; left; reflexivity|].
      right. intros [H|[H|(l' & H & _)]]; try discriminate. injection H as H. contradiction.
    + destruct (N.eq_dec v 4) as [->|N4]; [left; right; left; reflexivity|].
      right. intros [H|[H|(l' & H & _)]]; try discriminate. injection H as H. contradiction.
Qed.

Lemma rel_err_inv (r : res sliced_packet) e_ref :
  res_rel (vres_of r) (VErr e_ref) -> exists e, r = Err e.
Proof. destruct r as [p|e|b]; cbn; try contradiction. intros _. now exists e. Qed.

Definition lax_stop_ok (bs : bytes) (w : vres) (lax : res lax_sliced_packet) : Prop :=
  forall r' e' ly, lax = Ok r' -> lsp_stop_err r' = Some (e', ly) ->
    exists e_ref, w = VErr e_ref /\ (F10_class bs e_ref \/ stop_truthful e_ref e' ly).

Lemma lax_stop_core bs strict pw lax w :
  (forall b, strict <> Bug b) -> extends strict lax -> prefix_ok bs strict pw lax ->
  forget pw = w -> (forall se, w = VErr (ELen se) -> len_direction se) ->
  lax_stop_ok bs w lax.
Proof.
  intros NB Ext Pre Fg Dir r' e' ly HL HS.
  destruct strict as [r|e|b].
  - destruct (Ext r eq_refl) as (r'' & E & _ & S & _). rewrite HL in E. injection E as <-.
    rewrite HS in S. discriminate.
  - destruct (Pre e eq_refl) as (q & e_ref & r'' & Epw & Rel & E & Out).
    rewrite HL in E. injection E as <-.
    rewrite Epw in Fg. cbn [forget] in Fg. exists e_ref. split; [now symmetry|].
    destruct (F10_dec bs e_ref) as [F|NF]; [now left|right].
    destruct (Out NF) as (_ & [FB|[(e'' & ly'' & St & Same & Tag)|(C & e'' & St & C' & Off)]]).
    + right. right. exact FB.
    + change (lv_stop (lview r')) with (lsp_stop_err r') in St. rewrite HS in St.
      injection St as E1 E2. subst e'' ly''. left. split; [now apply lax_same_truthful|]. split; [exact Tag|].
      apply (lax_same_direction e_ref e' Same). intros l ->. apply Dir. now symmetry.
    + change (lv_stop (lview r')) with (lsp_stop_err r') in St. rewrite HS in St.
      injection St as E1 E2. subst e'' ly. right. left. auto.
  - exfalso. now apply (NB b).
Qed.

Theorem lax_stop_truthful bs et : bytes_ok bs ->
  (14 <= len bs -> lax_stop_ok bs (wire_ethernet bs) (LaxSlicedPacket.from_ethernet bs)) /\
  lax_stop_ok bs (wire_ether_type bs et) (LaxSlicedPacket.from_ether_type et bs) /\
  (ip_header_fault bs = None -> lax_stop_ok bs (wire_from_ip bs) (LaxSlicedPacket.from_ip bs)).
Proof.
  intros Hok.
  destruct (lax_extends_strict bs et) as (E1 & E2 & E3).
  destruct (lax_prefix_packet bs et Hok) as (P1 & P2 & P3).
  destruct (pwire_sound bs et) as (S1 & S2 & S3).
  split; [|split].
  - intros H14. apply (lax_stop_core bs _ _ _ _ (fun b => proj1 (strict_never_bug bs et b Hok)) E1 (P1 H14) S1).
    intros se. apply (wire_len_direction bs et se).
  - apply (lax_stop_core bs _ _ _ _
             (fun b => proj1 (proj2 (proj2 (strict_never_bug bs et b Hok)))) E2 P2 S2).
    intros se. apply (wire_len_direction bs et se).
  - intros HF. apply (lax_stop_core bs _ _ _ _
             (fun b => proj2 (proj2 (proj2 (strict_never_bug bs et b Hok)))) E3 (P3 HF) S3).
    intros se. apply (wire_len_direction bs et se).
Qed.

Definition hdr_stop_ok (bs : bytes) (w : vres) (laxcut : res lax_sliced_packet) (lh : res lhpacket) : Prop :=
  forall e_ref, w = VErr e_ref -> lax_stopped_at_ext laxcut = false -> ~ F10_class bs e_ref ->
    exists p v, lh = Ok p /\ lhview_of p = Ok v /\
      ((exists e' ly, lhv_stop v = Some (e', ly) /\
          c07_truthful (VErr e') (VErr e_ref) /\ tag_ok e' ly /\
          (forall l, e' = ELen l -> len_direction l)) \/
       (ip_hdr_class e_ref /\
        exists e', lhv_stop v = Some (e', LyIpHeader) /\ ip_hdr_class e' /\
          (f11_stop (lhv_stop v) = false ->
           forall o o', err_off e_ref = Some o -> err_off e' = Some o' -> o = o')) \/
       fallback e_ref).

Lemma hdr_stop_core bs strict pw laxcut lh w :
  res_rel (vres_of strict) w -> hdr_prefix_ok2 bs strict pw laxcut lh ->
  forget pw = w -> (forall se, w = VErr (ELen se) -> len_direction se) ->
  hdr_stop_ok bs w laxcut lh.
Proof.
  intros Rel Pre Fg Dir e_ref Hw HS NF. rewrite Hw in Rel.
  destruct (rel_err_inv _ _ Rel) as (e & ->).
  destruct (Pre e eq_refl HS) as (q & e_ref' & p & v & Epw & _ & _ & El & Ev & Out).
  rewrite Epw in Fg. cbn [forget] in Fg. rewrite Hw in Fg. injection Fg as ->.
  exists p, v. split; [exact El|]. split; [exact Ev|].
  destruct (Out NF) as (_ & [FB|[(e' & ly & St & Same & Tag)|(C & e' & St & C' & Off)]]).
  - right. right. exact FB.
  - left. exists e', ly. split; [exact St|]. split; [now apply lax_same_truthful|]. split; [exact Tag|].
    apply (lax_same_direction e_ref e' Same). intros l ->. apply Dir. exact Hw.
  - right. left. split; [exact C|]. exists e'. auto.
Qed.

Theorem hdr_lax_stop_truthful bs et : bytes_ok bs ->
  (14 <= len bs ->
   hdr_stop_ok bs (wire_ethernet bs) (LaxCut.from_ethernet true bs) (LaxPacketHeaders.from_ethernet bs)) /\
  hdr_stop_ok bs (wire_ether_type bs et) (LaxCut.from_ether_type true et bs)
    (LaxPacketHeaders.from_ether_type et bs) /\
  (ip_header_fault bs = None ->
   hdr_stop_ok bs (wire_from_ip bs) (LaxCut.from_ip true bs) (LaxPacketHeaders.from_ip bs)).
Proof.
  intros Hok.
  destruct (hdr_lax_prefix2 bs et Hok) as (P1 & P2 & P3).
  destruct (pwire_sound bs et) as (S1 & S2 & S3).
  split; [|split].
  - intros H14. apply (hdr_stop_core bs _ _ _ _ _ (from_ethernet_rel bs Hok) (P1 H14) S1).
    intros se. apply (wire_len_direction bs et se).
  - apply (hdr_stop_core bs _ _ _ _ _ (from_ether_type_rel bs et Hok) P2 S2).
    intros se. apply (wire_len_direction bs et se).
  - intros HF. apply (hdr_stop_core bs _ _ _ _ _ (from_ip_rel bs Hok) (P3 HF) S3).
    intros se. apply (wire_len_direction bs et se).
Qed.

(* ---- the stop error behind an IP length fallback ---------------------------------------------------
   pwire2 (Parse/LaxWire2.v) answers `P2Fb q e_fb inc resumed` when the strict reference decoder
   rejects with the IPv4 total length / IPv6 payload length check e_fb; `resumed` is the same strict
   reference decoder continued with the data that is there.  The lax stop error then is the
   rejection of `resumed`: exactly its (error, tag) when that lies inside the network layer, and
   related to it as in `stop_truthful` when it lies behind the network layer. *)
Definition behind_truthful (e2 : slice_error) (stop : option stop_error) : Prop :=
  (exists e' ly, stop = Some (e', ly) /\ c07_truthful (VErr e') (VErr e2) /\ tag_ok e' ly) \/
  (ip_hdr_class e2 /\
   exists e', stop = Some (e', LyIpHeader) /\ ip_hdr_class e' /\
     (forall o o', err_off e2 = Some o -> err_off e' = Some o' -> o = o')) \/
  fallback e2.

Definition fallback_stop_ok (w : vres) (pw : pres2) (lax : res lax_sliced_packet) : Prop :=
  forall q e_fb inc resumed, pw = P2Fb q e_fb inc resumed ->
    w = VErr e_fb /\
    exists r', lax = Ok r' /\
      match resumed with
      | P2RejNet _ _ tag e2 => lsp_stop_err r' = Some (e2, tag)
      | P2Rej _ e2 => behind_truthful e2 (lsp_stop_err r')
      | P2Acc _ => True
      | _ => False
      end.

Lemma fallback_stop_core strict pw lax w :
  res_rel (vres_of strict) w -> forget (to_pres pw) = w -> prefix_net_ok strict pw lax ->
  fallback_stop_ok w pw lax.
Proof.
  intros Rel Fg Pre q e_fb inc resumed Epw. rewrite Epw in Fg. cbn [to_pres forget] in Fg.
  split; [now symmetry|]. rewrite <- Fg in Rel.
  destruct (rel_err_inv _ _ Rel) as (e & ->).
  destruct (Pre e eq_refl) as (e_ref & r' & _ & _ & _ & El & Out).
  exists r'. split; [exact El|]. rewrite Epw in Out. cbn [net_outcome] in Out.
  destruct Out as (n & _ & _ & Out).
  destruct resumed as [q'|q' e2|q' n' tag e2|? ? ? ?|?]; try contradiction; [exact I| |].
  - destruct Out as (_ & [FB|[(e' & ly & St & Same & Tag)|(C & e' & St & C' & Off)]]).
    + right. right. exact FB.
    + left. exists e', ly. split; [exact St|]. split; [now apply lax_same_truthful|exact Tag].
    + right. left. split; [exact C|]. exists e'. auto.
  - destruct Out as (_ & _ & St & _). exact St.
Qed.

Theorem lax_stop_after_ip_fallback bs et : bytes_ok bs ->
  (14 <= len bs ->
   fallback_stop_ok (wire_ethernet bs) (pwire2_ethernet bs) (LaxSlicedPacket.from_ethernet bs)) /\
  fallback_stop_ok (wire_ether_type bs et) (pwire2_ether_type bs et)
    (LaxSlicedPacket.from_ether_type et bs) /\
  (ip_header_fault bs = None ->
   fallback_stop_ok (wire_from_ip bs) (pwire2_from_ip bs) (LaxSlicedPacket.from_ip bs)).
Proof.
  intros Hok.
  destruct (lax_prefix_net_packet bs et Hok) as (P1 & P2 & P3).
  destruct (pwire2_sound bs et) as (S1 & S2 & S3).
  split; [|split].
  - intros H14. apply (fallback_stop_core _ _ _ _ (from_ethernet_rel bs Hok) S1 (P1 H14)).
  - apply (fallback_stop_core _ _ _ _ (from_ether_type_rel bs et Hok) S2 P2).
  - intros HF. apply (fallback_stop_core _ _ _ _ (from_ip_rel bs Hok) S3 (P3 HF)).
Qed.
