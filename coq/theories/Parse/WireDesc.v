(* Parse/WireDesc.v -- facts ABOUT the accepted views of the reference decoder
   (Parse/WireSpec.v): the IP payload descriptor of an accepted view.

   `desc bs v`: for the network layer of the view
     - IPv4: the payload's protocol number is the protocol octet of the header (offset 9),
       or, with an authentication header behind the IPv4 header, the next-header octet of
       that header; the payload is flagged fragmented iff MF is set or the fragment
       offset is not 0;
     - IPv6: walking the extension window [start, end) of the view from the IPv6 header's
       next-header octet (`chain_end`: 0 / 43 / 60 -> (len+1) * 8 octets, 44 -> 8 octets,
       51 -> (len+2) * 4 octets, each naming the kind of the next) ends with the payload's
       protocol number; the payload is flagged fragmented iff one of the fragment headers
       on the way has M set or a fragment offset other than 0; the flag stored with the
       extension window is the same; the length source of the payload is `Slice` exactly
       when the payload length field is 0 and there are octets behind the 40 byte header. *)
From EP Require Import Base.Bytes Parse.Types Parse.View Parse.WireSpec Parse.WireSpecFacts
  Parse.WireNested.
From Coq Require Import ZArith Lia ZifyN ZifyBool.

Local Open Scope N_scope.

Section Desc.
  Variable bs : bytes.
  Local Notation B := (B bs).
  Local Notation W := (W bs).

  (* RFC 8200 4.5: M flag = lowest bit of octet 3, fragment offset = upper 13 bits of the
     word at 2 *)
  Definition frag_hdr_fragments (pos : N) : bool :=
    negb (B (pos + 3) mod 2 =? 0) || negb (W (pos + 2) / 8 =? 0).

  (* protocol number behind the extension headers in [pos, lim) and "some fragment header
     fragments the payload" *)
  Fixpoint chain_end (fuel : nat) (nh pos lim : N) (fr : bool) : N * bool :=
    match fuel with
    | O => (nh, fr)
    | S f =>
        if lim <=? pos then (nh, fr)
        else if (nh =? 0) || (nh =? 43) || (nh =? 60) then
          chain_end f (B pos) (pos + (B (pos + 1) + 1) * 8) lim fr
        else if nh =? 44 then
          chain_end f (B pos) (pos + 8) lim (fr || frag_hdr_fragments pos)
        else if nh =? 51 then
          chain_end f (B pos) (pos + (B (pos + 1) + 2) * 4) lim fr
        else (nh, fr)
    end.

  Definition net_desc (nn : vnet) : Prop :=
    match nn with
    | VArp _ => True
    | VIpv4 h auth p =>
        vip_number p = match auth with Some a => B (fst a) | None => B (fst h + 9) end /\
        vip_frag p = ipv4_fragmented bs (fst h)
    | VIpv6 h first frag x p =>
        let pos := fst h in
        chain_end (S (N.to_nat (snd x))) (B (pos + 6)) (fst x) (fst x + snd x) false
          = (vip_number p, vip_frag p) /\
        frag = vip_frag p /\
        vip_src p = (if (W (pos + 4) =? 0) && (0 <? snd x + snd (vip_win p))
                     then LsSlice else LsIpv6HeaderPayloadLen)
    end.

  Definition desc (v : vpacket) : Prop :=
    match v_net v with None => True | Some nn => net_desc nn end.

  (* the decoder either leaves the network layer of p alone or sets a described one *)
  Definition netd (p v : vpacket) : Prop :=
    v_net v = v_net p \/ exists nn, v_net v = Some nn /\ net_desc nn.

  Lemma wire_transport_net p ipn frag src pos lim v :
    wire_transport bs p ipn frag src pos lim = VOk v -> v_net v = v_net p.
  Proof.
    intros H. apply wire_transport_iff in H. destruct H as [(-> & _)|(_ & t & -> & _)]; reflexivity.
  Qed.

  Lemma netd_transport p nn ipn frag src pos lim v :
    wire_transport bs (with_net p nn) ipn frag src pos lim = VOk v -> net_desc nn -> netd p v.
  Proof.
    intros H D. apply wire_transport_net in H. right. exists nn. split; [exact H|exact D].
  Qed.

  Lemma wire_ipv4_body_desc p src pos lim hl v :
    wire_ipv4_body bs p src pos lim hl = VOk v -> netd p v.
  Proof.
    intros Hw. apply wire_ipv4_body_iff in Hw. destruct Hw as (_ & auth & ppos & next & Ha & Hw).
    apply (netd_transport _ _ _ _ _ _ _ _ Hw). cbn [net_desc vip_number vip_frag fst].
    split; [|reflexivity]. destruct auth as [a|]; cbn [ipv4_auth] in Ha.
    - destruct Ha as (_ & -> & _ & _ & _ & ->). reflexivity.
    - apply Ha.
  Qed.

  Lemma wire_ipv4_desc p src pos lim v : wire_ipv4 bs p src pos lim = VOk v -> netd p v.
  Proof. intros Hw. apply wire_ipv4_iff in Hw. exact (wire_ipv4_body_desc _ _ _ _ _ _ (proj2 (proj2 (proj2 Hw)))). Qed.

  (* the window walk steps over a header the way the decoder does *)
  Lemma chain_end_hdr first f nh pos e l frag frag' :
    chain_hdr bs first nh pos l frag frag' -> pos < e ->
    chain_end (S f) nh pos e frag = chain_end f (B pos) (pos + l) e frag'.
  Proof.
    intros Hh He. cbn [chain_end]. destruct (N.leb_spec e pos); [lia|].
    destruct Hh as [(Hn & -> & ->)|[(-> & -> & ->)|(-> & -> & _ & ->)]]; [|reflexivity..].
    replace ((nh =? 0) || (nh =? 43) || (nh =? 60)) with true by lia. reflexivity.
  Qed.

  (* the chain of the decoder ends where the window walk ends *)
  Lemma wire_chain_end : forall fuel src pos lim nh frag e next fr,
    pos <= lim -> wire_chain bs fuel src pos lim nh frag = ChOk e next fr ->
    forall fuel2, (N.to_nat (e - pos) < fuel2)%nat -> chain_end fuel2 nh pos e frag = (next, fr).
  Proof.
    induction fuel as [|f IH]; intros src pos lim nh frag e next fr Hle Hc fuel2 Hf; [discriminate|].
    destruct fuel2 as [|f2]; [lia|].
    apply wire_chain_iff in Hc. destruct Hc as [(Hn & -> & -> & ->)|(l & frag' & Hh & Hl & Hc)].
    - cbn [chain_end]. rewrite N.leb_refl. reflexivity.
    - pose proof (chain_hdr_len _ _ _ _ _ _ _ Hh) as H8.
      assert (Hle' : pos + l <= lim) by lia.
      destruct (wire_chain_bounds _ _ _ _ _ _ _ _ _ _ Hle' Hc) as (Hb & _).
      rewrite (chain_end_hdr _ _ _ _ _ _ _ _ Hh) by lia. apply (IH _ _ _ _ _ _ _ _ Hle' Hc). lia.
  Qed.

  Lemma wire_exts_end fuel src pos lim nh e next fr :
    pos <= lim -> wire_exts bs fuel src pos lim nh = ChOk e next fr ->
    forall fuel2, (N.to_nat (e - pos) < fuel2)%nat -> chain_end fuel2 nh pos e false = (next, fr).
  Proof.
    intros Hle Hc fuel2 Hf. apply wire_exts_iff in Hc.
    destruct Hc as [(-> & Hl & Hc)|(_ & Hc)]; [|exact (wire_chain_end _ _ _ _ _ _ _ _ _ Hle Hc fuel2 Hf)].
    assert (Hle' : pos + (B (pos + 1) + 1) * 8 <= lim) by lia.
    destruct (wire_chain_bounds _ _ _ _ _ _ _ _ _ _ Hle' Hc) as (Hb & _).
    destruct fuel2 as [|f2]; [lia|].
    rewrite (chain_end_hdr true _ 0 pos e _ false false) by (lia || (left; auto)).
    apply (wire_chain_end _ _ _ _ _ _ _ _ _ Hle' Hc). lia.
  Qed.

  Lemma wire_ipv6_tail_desc p esrc psrc pos lim' v :
    pos + 40 <= lim' ->
    psrc = (if (W (pos + 4) =? 0) && (0 <? lim' - (pos + 40)) then LsSlice else LsIpv6HeaderPayloadLen) ->
    wire_ipv6_tail bs p esrc psrc pos lim' = VOk v -> netd p v.
  Proof.
    intros H40 Hsrc Hw. apply wire_ipv6_tail_iff in Hw. destruct Hw as (e & next & frag & Hc & Hw).
    destruct (wire_exts_bounds _ _ _ _ _ _ _ _ _ H40 Hc) as (He1 & He2).
    apply (netd_transport _ _ _ _ _ _ _ _ Hw).
    cbn [net_desc vip_number vip_frag vip_src vip_win fst snd]. cbv zeta.
    split; [|split; [reflexivity|]].
    - replace (pos + 40 + (e - (pos + 40))) with e by lia.
      apply (wire_exts_end _ _ _ _ _ _ _ _ H40 Hc). lia.
    - rewrite Hsrc. replace (e - (pos + 40) + (lim' - e)) with (lim' - (pos + 40)) by lia. reflexivity.
  Qed.

  Lemma wire_ipv6_body_desc p src pos lim v : wire_ipv6_body bs p src pos lim = VOk v -> netd p v.
  Proof.
    intros Hw. apply wire_ipv6_body_iff in Hw.
    destruct Hw as [(Hz & H40 & Hw)|(Hz & H40 & Hw)]; revert Hw; apply wire_ipv6_tail_desc; try lia.
    - rewrite Hz. cbn [N.eqb andb]. destruct (N.ltb_spec 0 (lim - (pos + 40))); [reflexivity|lia].
    - destruct (N.eqb_spec (W (pos + 4)) 0) as [E|E]; [|reflexivity]. cbn [andb].
      destruct (N.ltb_spec 0 (pos + 40 + W (pos + 4) - (pos + 40))); [lia|reflexivity].
  Qed.

  Lemma wire_ipv6_desc p src pos lim v : wire_ipv6 bs p src pos lim = VOk v -> netd p v.
  Proof. intros Hw. apply wire_ipv6_iff in Hw. exact (wire_ipv6_body_desc _ _ _ _ _ (proj2 (proj2 Hw))). Qed.

  Lemma wire_ip_desc p src pos lim v : wire_ip bs p src pos lim = VOk v -> netd p v.
  Proof.
    intros Hw. apply wire_ip_iff in Hw.
    destruct Hw as [Hw|Hw]; [exact (wire_ipv4_desc _ _ _ _ _ Hw)|exact (wire_ipv6_desc _ _ _ _ _ Hw)].
  Qed.

  Lemma wire_net_desc p et src pos lim v : wire_net bs p et src pos lim = VOk v -> netd p v.
  Proof.
    intros Hw. apply wire_net_iff in Hw. destruct Hw as [(_ & Hw)|[(_ & Hw)|[(_ & Hw)|(_ & ->)]]].
    - apply wire_arp_iff in Hw. destruct Hw as (_ & ->). right. eexists. split; [reflexivity|exact I].
    - exact (wire_ipv4_desc _ _ _ _ _ Hw).
    - exact (wire_ipv6_desc _ _ _ _ _ Hw).
    - now left.
  Qed.

  Lemma netd_ext p x v : netd (with_ext p x) v -> netd p v.
  Proof. exact (fun H => H). Qed.

  Lemma wire_ether_desc : forall cap p et src pos lim v,
    wire_ether bs cap p et src pos lim = VOk v -> netd p v.
  Proof.
    induction cap as [|c IH]; intros p et src pos lim v Hw;
      destruct (link_ext_cases et) as [Hv|[->|(Hx & Hm)]];
      try (rewrite (wire_ether_net bs _ _ _ _ _ _ Hx Hm) in Hw; exact (wire_net_desc _ _ _ _ _ _ Hw)).
    - rewrite wire_ether_stop in Hw by (left; exact Hv). injection Hw as <-. now left.
    - rewrite wire_ether_stop in Hw by (right; reflexivity). injection Hw as <-. now left.
    - apply (wire_ether_vlan bs _ _ _ _ _ _ _ Hv) in Hw. exact (IH _ _ _ _ _ _ (proj2 Hw)).
    - apply wire_ether_macsec in Hw. cbv zeta in Hw. destruct Hw as (_ & _ & _ & _ & Hw).
      destruct ((B pos / 4) mod 4 =? 0); [exact (IH _ _ _ _ _ _ Hw)|]. subst v. now left.
  Qed.

  Theorem wire_ethernet_desc v : wire_ethernet bs = VOk v -> desc v.
  Proof.
    unfold wire_ethernet. destruct (n_bs bs <? 14); [discriminate|].
    intros H. apply wire_ether_desc in H. unfold desc.
    destruct H as [H|(nn & H & D)]; rewrite H; [exact I|exact D].
  Qed.

  Theorem wire_linux_sll_desc v : wire_linux_sll bs = VOk v -> desc v.
  Proof.
    unfold wire_linux_sll. cbv zeta. destruct (n_bs bs <? 16); [discriminate|].
    destruct (7 <? W 0); [discriminate|]. destruct (negb (sll_hw_supported (W 2))); [discriminate|].
    destruct ((W 2 =? 1) && negb (sll_nonstandard (W 14))).
    - intros H. apply wire_ether_desc in H. unfold desc.
      destruct H as [H|(nn & H & D)]; rewrite H; [exact I|exact D].
    - intros H. injection H as <-. exact I.
  Qed.

  Theorem wire_ether_type_desc et v : wire_ether_type bs et = VOk v -> desc v.
  Proof.
    unfold wire_ether_type. intros H. apply wire_ether_desc in H. unfold desc.
    destruct H as [H|(nn & H & D)]; rewrite H; [exact I|exact D].
  Qed.

  Theorem wire_from_ip_desc v : wire_from_ip bs = VOk v -> desc v.
  Proof.
    unfold wire_from_ip. intros H. apply wire_ip_desc in H. unfold desc.
    destruct H as [H|(nn & H & D)]; rewrite H; [exact I|exact D].
  Qed.
End Desc.

Theorem wire_desc bs et v :
  (wire_ethernet bs = VOk v -> desc bs v) /\
  (wire_linux_sll bs = VOk v -> desc bs v) /\
  (wire_ether_type bs et = VOk v -> desc bs v) /\
  (wire_from_ip bs = VOk v -> desc bs v).
Proof.
  split; [|split; [|split]];
    [apply wire_ethernet_desc|apply wire_linux_sll_desc|apply wire_ether_type_desc|apply wire_from_ip_desc].
Qed.
