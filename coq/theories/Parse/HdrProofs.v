(* Parse/HdrProofs.v -- struct decoding (HdrModel.v) agrees with strict slicing
   cut at the first refilled IPv6 extension header (HdrCut.v), for every byte
   string; the cut variant is the strict slicing model unless it stopped. *)
From EP Require Import Base.Bytes Base.Lists Parse.Types Parse.Slices Parse.Cursor Parse.View
  Parse.WireSpec Parse.Repr Parse.StrictProofs Parse.HdrModel Parse.HdrView Parse.HdrCut.
From Coq Require Import ZArith Lia ZifyN ZifyBool.
Import SlicedPacketCursor.

Local Open Scope N_scope.

(* A relation that holds between equal results lifts through a bind whose two continuations
   are related pointwise: the way every comparison of Cut.* at cut = true, at cut = false and
   of the slicing model descends to the one place where they differ. *)
Lemma bind_rel {A B} (R : res B -> res B -> Prop) (r : res A) (f g : A -> res B) :
  (forall x, R x x) -> (forall a, R (f a) (g a)) -> R (bind r f) (bind r g).
Proof. intros Hrefl H. destruct r; cbn [bind]; [apply H|apply Hrefl|apply Hrefl]. Qed.

Lemma bind_congr {A B} (r : res A) (f g : A -> res B) :
  (forall a, f a = g a) -> bind r f = bind r g.
Proof. apply (bind_rel eq); reflexivity. Qed.

(* With cut = false the Cut functions are the strict slicing model. *)
Lemma cut_false_walk fuel : forall start_len rest nh fr f,
  Cut.walk false fuel start_len rest nh fr f = Ipv6ExtensionsSlice.walk fuel start_len rest nh fr.
Proof.
  induction fuel as [|fu IH]; intros; [reflexivity|].
  cbn [Cut.walk Ipv6ExtensionsSlice.walk andb].
  destruct (nh =? IPN_HOP_BY_HOP); [reflexivity|].
  destruct ((nh =? IPN_DEST_OPTIONS) || (nh =? IPN_ROUTE)).
  { do 5 (apply bind_congr; intro). apply IH. }
  destruct (nh =? IPN_FRAG).
  { do 6 (apply bind_congr; intro). apply IH. }
  destruct (nh =? IPN_AUTH); [|reflexivity].
  do 5 (apply bind_congr; intro). apply IH.
Qed.

Lemma cut_false_exts nh s : Cut.exts_from_slice false nh s = Ipv6ExtensionsSlice.from_slice nh s.
Proof.
  unfold Cut.exts_from_slice, Ipv6ExtensionsSlice.from_slice.
  apply bind_congr; intros [r0 n0]. now rewrite cut_false_walk.
Qed.

Lemma cut_false_v6_finish s h : Cut.v6_finish false s h = Ipv6Slice.finish s h.
Proof.
  unfold Cut.v6_finish, Ipv6Slice.finish.
  apply bind_congr; intros pl. apply bind_congr; intros [hp src]. apply bind_congr; intros nh.
  now rewrite cut_false_exts.
Qed.

Lemma cut_false_v6 s : Cut.v6_from_slice false s = Ipv6Slice.from_slice s.
Proof.
  unfold Cut.v6_from_slice, Ipv6Slice.from_slice.
  apply bind_congr; intros h. apply cut_false_v6_finish.
Qed.

Lemma cut_false_ip s : Cut.ip_from_slice false s = IpSlice.from_slice s.
Proof.
  unfold Cut.ip_from_slice, IpSlice.from_slice.
  destruct (s_len s =? 0); [reflexivity|].
  apply bind_congr; intros b0.
  destruct (N.shiftr b0 4 =? 4); [reflexivity|].
  destruct (N.shiftr b0 4 =? 6); [|reflexivity].
  destruct (s_len s <? 40); [reflexivity|].
  apply bind_congr; intros h. now rewrite cut_false_v6_finish.
Qed.

Lemma cut_false_slice_ip c s : Cut.slice_ip false c s = slice_ip c s.
Proof. unfold Cut.slice_ip, slice_ip. now rewrite cut_false_ip. Qed.

Lemma cut_false_slice_ipv6 c s : Cut.slice_ipv6 false c s = slice_ipv6 c s.
Proof. unfold Cut.slice_ipv6, slice_ipv6. now rewrite cut_false_v6. Qed.

Lemma cut_false_loop fuel : forall c ep,
  Cut.slice_ether_type_loop false fuel c ep = slice_ether_type_loop fuel c ep.
Proof.
  induction fuel as [|f IH]; intros; [reflexivity|].
  cbn [Cut.slice_ether_type_loop slice_ether_type_loop].
  destruct (is_vlan_type (ep_ether_type ep)).
  { destruct (LINK_EXTS_CAP <=? _); [reflexivity|].
    do 3 (apply bind_congr; intro). apply IH. }
  destruct (ep_ether_type ep =? ET_MACSEC).
  { destruct (LINK_EXTS_CAP <=? _); [reflexivity|].
    apply bind_congr; intros m. do 3 (apply bind_congr; intro).
    destruct (ms_payload m); [apply IH|reflexivity]. }
  destruct (ep_ether_type ep =? ET_ARP); [reflexivity|].
  destruct (ep_ether_type ep =? ET_IPV4); [reflexivity|].
  destruct (ep_ether_type ep =? ET_IPV6); [apply cut_false_slice_ipv6|reflexivity].
Qed.

Theorem cut_false_from_ethernet bs : Cut.from_ethernet false bs = SlicedPacket.from_ethernet bs.
Proof.
  unfold Cut.from_ethernet, SlicedPacket.from_ethernet, Cut.slice_ethernet2, slice_ethernet2,
    Cut.slice_ether_type, slice_ether_type.
  do 2 (apply bind_congr; intro). apply cut_false_loop.
Qed.

Theorem cut_false_from_ether_type et bs :
  Cut.from_ether_type false et bs = SlicedPacket.from_ether_type et bs.
Proof. unfold Cut.from_ether_type, SlicedPacket.from_ether_type, Cut.slice_ether_type, slice_ether_type. apply cut_false_loop. Qed.

Theorem cut_false_from_ip bs : Cut.from_ip false bs = SlicedPacket.from_ip bs.
Proof. apply cut_false_slice_ip. Qed.

(* The link loop and the two entry points in front of it depend on `cut` only through
   Cut.slice_ipv6: whatever relates the two values of that function (and every result to
   itself) relates the two runs. *)
Section CutRel.
  Variable R : res sliced_packet -> res sliced_packet -> Prop.
  Hypothesis R_refl : forall x, R x x.
  Hypothesis R_ipv6 : forall c s, R (Cut.slice_ipv6 true c s) (Cut.slice_ipv6 false c s).

  Lemma cut_loop_rel fuel : forall c ep,
    R (Cut.slice_ether_type_loop true fuel c ep) (Cut.slice_ether_type_loop false fuel c ep).
  Proof.
    induction fuel as [|f IH]; intros; [apply R_refl|].
    cbn [Cut.slice_ether_type_loop].
    destruct (is_vlan_type (ep_ether_type ep)).
    { destruct (LINK_EXTS_CAP <=? _); [apply R_refl|].
      do 3 (apply bind_rel; [exact R_refl|intro]). apply IH. }
    destruct (ep_ether_type ep =? ET_MACSEC).
    { destruct (LINK_EXTS_CAP <=? _); [apply R_refl|].
      apply bind_rel; [exact R_refl|intros m]. do 3 (apply bind_rel; [exact R_refl|intro]).
      destruct (ms_payload m); [apply IH|apply R_refl]. }
    destruct (ep_ether_type ep =? ET_ARP); [apply R_refl|].
    destruct (ep_ether_type ep =? ET_IPV4); [apply R_refl|].
    destruct (ep_ether_type ep =? ET_IPV6); [apply R_ipv6|apply R_refl].
  Qed.

  Lemma cut_ethernet_rel bs : R (Cut.from_ethernet true bs) (Cut.from_ethernet false bs).
  Proof.
    unfold Cut.from_ethernet, Cut.slice_ethernet2, Cut.slice_ether_type.
    do 2 (apply bind_rel; [exact R_refl|intro]). apply cut_loop_rel.
  Qed.

  Lemma cut_ether_type_rel et bs : R (Cut.from_ether_type true et bs) (Cut.from_ether_type false et bs).
  Proof. apply cut_loop_rel. Qed.
End CutRel.

(* The cut variant differs from the strict slicing model only by having stopped in front of
   a refilled extension header. *)
Definition dich {A} (P : A -> Prop) (x y : res A) : Prop :=
  x = y \/ (exists v, x = Ok v /\ P v) \/ (exists b, x = Bug b).

Lemma dich_refl {A} (P : A -> Prop) x : dich P x x.
Proof. now left. Qed.

(* a stopped left side stays stopped (or becomes a Bug) under a continuation that keeps it so *)
Lemma dich_bind {A B} (P : A -> Prop) (Q : B -> Prop) x y (f : A -> res B) :
  dich P x y ->
  (forall v, P v -> (exists w, f v = Ok w /\ Q w) \/ exists b, f v = Bug b) ->
  dich Q (bind x f) (bind y f).
Proof.
  intros [->|[(v & -> & Pv)|(b & ->)]] Hf; [now left| |right; right; now exists b].
  right. cbn [bind]. destruct (Hf v Pv) as [(w & -> & Qw)|(b & ->)]; eauto.
Qed.

Lemma dich_map_len_err {A} (P : A -> Prop) g x y : dich P x y -> dich P (map_len_err g x) (map_len_err g y).
Proof.
  intros [->|[(v & -> & Pv)|(b & ->)]]; [now left| |right; right; now exists b].
  right. left. exists v. now split.
Qed.

Lemma refilled_ext f k : refilled f k = true -> is_ext_number k = true.
Proof.
  unfold refilled, is_ext_number.
  destruct (k =? IPN_DEST_OPTIONS); [reflexivity|].
  destruct (k =? IPN_ROUTE); [reflexivity|].
  destruct (k =? IPN_FRAG); [reflexivity|].
  destruct (k =? IPN_AUTH); [reflexivity|discriminate].
Qed.

Lemma dich_walk fuel : forall start rest nh fr f,
  dich (fun w => is_ext_number (snd (fst w)) = true)
       (Cut.walk true fuel start rest nh fr f) (Cut.walk false fuel start rest nh fr f).
Proof.
  induction fuel as [|fu IH]; intros; [now left|].
  cbn [Cut.walk andb].
  destruct (refilled f nh) eqn:Er.
  { right. left. eexists. split; [reflexivity|]. cbn. now apply (refilled_ext f). }
  destruct (nh =? IPN_HOP_BY_HOP); [now left|].
  destruct ((nh =? IPN_DEST_OPTIONS) || (nh =? IPN_ROUTE)).
  { do 5 (apply bind_rel; [apply dich_refl|intro]). apply IH. }
  destruct (nh =? IPN_FRAG).
  { do 6 (apply bind_rel; [apply dich_refl|intro]). apply IH. }
  destruct (nh =? IPN_AUTH); [|now left].
  do 5 (apply bind_rel; [apply dich_refl|intro]). apply IH.
Qed.

Lemma subN_cases a b : (exists v, subN a b = Ok v) \/ subN a b = Bug SITE_SUBTRACT.
Proof. unfold subN. destruct (b <=? a); eauto. Qed.

Lemma dich_exts nh s :
  dich (fun x => is_ext_number (snd (fst x)) = true)
       (Cut.exts_from_slice true nh s) (Cut.exts_from_slice false nh s).
Proof.
  unfold Cut.exts_from_slice.
  apply bind_rel; [apply dich_refl|intros [r0 n0]].
  eapply dich_bind; [apply dich_walk|]. intros [[r k] fr] P. cbn in P.
  destruct (subN_cases (s_len s) (s_len r)) as [(a & ->)| ->]; cbn [bind]; [|eauto].
  destruct (a <=? s_len s); cbn [bind]; eauto.
Qed.

Definition v6_ext (v : ipv6_slice) : Prop := is_ext_number (ipp_number (v6_payload v)) = true.

Lemma dich_v6_finish s h :
  dich v6_ext (Cut.v6_finish true s h) (Cut.v6_finish false s h).
Proof.
  unfold Cut.v6_finish.
  apply bind_rel; [apply dich_refl|intros pl]. apply bind_rel; [apply dich_refl|intros [hp src]].
  apply bind_rel; [apply dich_refl|intros nh].
  destruct (dich_exts nh hp) as [->|[([[x k] r] & -> & P)|(b & ->)]]; [now left| |right; right; now exists b].
  right. left. eexists. split; [reflexivity|exact P].
Qed.

Lemma dich_v6 s : dich v6_ext (Cut.v6_from_slice true s) (Cut.v6_from_slice false s).
Proof.
  unfold Cut.v6_from_slice. apply bind_rel; [apply dich_refl|intros h]. apply dich_v6_finish.
Qed.

Lemma dich_ip s :
  dich (fun i => exists v, i = IpV6 v /\ v6_ext v) (Cut.ip_from_slice true s) (Cut.ip_from_slice false s).
Proof.
  unfold Cut.ip_from_slice.
  destruct (s_len s =? 0); [now left|].
  apply bind_rel; [apply dich_refl|intros b0].
  destruct (N.shiftr b0 4 =? 4); [now left|].
  destruct (N.shiftr b0 4 =? 6); [|now left].
  destruct (s_len s <? 40); [now left|].
  apply bind_rel; [apply dich_refl|intros h].
  eapply dich_bind; [apply dich_v6_finish|]. intros v P. left. eauto.
Qed.

Lemma ext_number_not_transport k : is_ext_number k = true ->
  (k =? IPN_ICMP) = false /\ (k =? IPN_UDP) = false /\ (k =? IPN_TCP) = false /\
  (k =? IPN_ICMPV6) = false.
Proof.
  intros H. repeat split; apply N.eqb_neq; intros ->; discriminate H.
Qed.

Lemma transport_dispatch_ext c p :
  is_ext_number (ipp_number p) = true -> transport_dispatch c p = Ok (c_result c).
Proof.
  intros H. destruct (ext_number_not_transport _ H) as (E1 & E2 & E3 & E4).
  unfold transport_dispatch. rewrite E1, E2, E3, E4. now destruct (ipp_fragmented p).
Qed.

Definition sp_stopped (sp : sliced_packet) : Prop := stopped_at_ext (Ok sp) = true.

(* the tail shared by Cut.slice_ipv6 and Cut.slice_ip once the IPv6 slice stopped at a cut *)
Lemma set_net_stopped c s v : v6_ext v ->
  (exists w, (let* d := ptr_diff (ipp_slice (v6_payload v)) s in
              transport_dispatch (set_net c (c_offset c + d) (ipp_src (v6_payload v)) (NtIpv6 v))
                (v6_payload v)) = Ok w /\ sp_stopped w) \/
  (exists b, (let* d := ptr_diff (ipp_slice (v6_payload v)) s in
              transport_dispatch (set_net c (c_offset c + d) (ipp_src (v6_payload v)) (NtIpv6 v))
                (v6_payload v)) = Bug b).
Proof.
  intros P. unfold ptr_diff.
  destruct (subN_cases (s_off (ipp_slice (v6_payload v))) (s_off s)) as [(d & ->)| ->]; cbn [bind]; [|eauto].
  rewrite transport_dispatch_ext by exact P. left. eexists. split; [reflexivity|exact P].
Qed.

Lemma dich_slice_ipv6 c s :
  dich sp_stopped (Cut.slice_ipv6 true c s) (Cut.slice_ipv6 false c s).
Proof.
  unfold Cut.slice_ipv6.
  eapply dich_bind; [apply dich_map_len_err, dich_v6|]. intros v P. now apply set_net_stopped.
Qed.

Lemma dich_slice_ip c s :
  dich sp_stopped (Cut.slice_ip true c s) (Cut.slice_ip false c s).
Proof.
  unfold Cut.slice_ip.
  eapply dich_bind; [apply dich_map_len_err, dich_ip|]. intros i (v & -> & P). now apply set_net_stopped.
Qed.

Lemma dich_done (x y : res sliced_packet) :
  dich sp_stopped x y -> stopped_at_ext x = false -> (forall b, x <> Bug b) -> x = y.
Proof.
  intros [E|[(v & E & P)|(b & E)]] Hs Hb; [exact E| |].
  - rewrite E in Hs. unfold sp_stopped in P. congruence.
  - now destruct (Hb b).
Qed.

Theorem cut_only_when_stopped_ethernet bs :
  stopped_at_ext (Cut.from_ethernet true bs) = false -> (forall b, Cut.from_ethernet true bs <> Bug b) ->
  Cut.from_ethernet true bs = SlicedPacket.from_ethernet bs.
Proof.
  intros Hs Hb. eapply eq_trans; [|apply cut_false_from_ethernet].
  apply dich_done; [|exact Hs|exact Hb].
  apply cut_ethernet_rel; [apply dich_refl|apply dich_slice_ipv6].
Qed.

Theorem cut_only_when_stopped_ether_type et bs :
  stopped_at_ext (Cut.from_ether_type true et bs) = false -> (forall b, Cut.from_ether_type true et bs <> Bug b) ->
  Cut.from_ether_type true et bs = SlicedPacket.from_ether_type et bs.
Proof.
  intros Hs Hb. eapply eq_trans; [|apply cut_false_from_ether_type].
  apply dich_done; [|exact Hs|exact Hb].
  apply cut_ether_type_rel; [apply dich_refl|apply dich_slice_ipv6].
Qed.

Theorem cut_only_when_stopped_ip bs :
  stopped_at_ext (Cut.from_ip true bs) = false -> (forall b, Cut.from_ip true bs <> Bug b) ->
  Cut.from_ip true bs = SlicedPacket.from_ip bs.
Proof.
  intros Hs Hb. eapply eq_trans; [|apply cut_false_from_ip].
  apply dich_done; [|exact Hs|exact Hb]. apply dich_slice_ip.
Qed.

(* Struct decoding against cut slicing, layer by layer. *)
Lemma idx_from_eq s k : k <= s_len s -> idx_from s k = Ok (fst s + k, drop k (snd s)).
Proof. intros H. unfold idx_from. destruct (k <=? s_len s) eqn:E; [reflexivity|lia]. Qed.

Lemma subU_rest s k : k <= s_len s -> subU s k (s_len s - k) = Ok (fst s + k, drop k (snd s)).
Proof.
  intros H. rewrite subU_eq by lia. f_equal. f_equal.
  apply take_all. rewrite len_drop. unfold s_len. lia.
Qed.

Lemma s_len_sub o s k n : k + n <= s_len s -> s_len (o, take n (drop k (snd s))) = n.
Proof. intros H. unfold s_len in *. cbn [snd]. rewrite len_take, len_drop. lia. Qed.

Lemma s_len_drop o s k : s_len (o, drop k (snd s)) = s_len s - k.
Proof. unfold s_len. cbn [snd]. apply len_drop. Qed.

Lemma subU_inv s k n h :
  subU s k n = Ok h -> k + n <= s_len s /\ h = (fst s + k, take n (drop k (snd s))).
Proof.
  unfold subU. destruct (k + n <=? s_len s) eqn:E; [|discriminate].
  intros H. injection H as <-. split; [lia|reflexivity].
Qed.

Lemma subU_len s k n h : subU s k n = Ok h -> s_len h = n /\ s_off h = s_off s + k /\ k + n <= s_len s.
Proof.
  intros H. apply subU_inv in H. destruct H as (L & ->). split; [now apply s_len_sub|]. split; [reflexivity|exact L].
Qed.

Lemma rdU_ok s i : i < s_len s -> exists v, rdU s i = Ok v.
Proof.
  intros H. unfold rdU. destruct (rd_lt_Some (snd s) i H) as (v & ->). eauto.
Qed.

Lemma rdU_byte s i v : bytes_ok (snd s) -> rdU s i = Ok v -> v < 256.
Proof.
  unfold rdU. intros Hok. destruct (rd (snd s) i) eqn:E; [|discriminate].
  intros H. injection H as <-. eapply rd_ok; eauto.
Qed.

Lemma rd16_ok s i : i + 1 < s_len s -> exists v, rd16 s i = Ok v.
Proof.
  intros H. unfold rd16.
  destruct (rdU_ok s i) as (a & ->); [lia|]. destruct (rdU_ok s (i + 1)) as (b & ->); [lia|].
  cbn. eauto.
Qed.

(* reading inside a prefix is reading the slice *)
Lemma rd16_prefix o s n i :
  i + 1 < n -> rd16 (o, take n (drop 0 (snd s))) i = rd16 s i.
Proof.
  intros H. unfold rd16, rdU. cbn [snd]. rewrite drop0.
  rewrite !rd_take_lt by lia. reflexivity.
Qed.

Lemma bytes_ok_rest (o : N) (s : slice) k : bytes_ok (snd s) -> bytes_ok (@snd N bytes (o, drop k (snd s))).
Proof. intros H. cbn [snd]. now apply bytes_ok_drop. Qed.

Lemma bytes_ok_window (o : N) (s : slice) k n :
  bytes_ok (snd s) -> bytes_ok (@snd N bytes (o, take n (drop k (snd s)))).
Proof. intros H. cbn [snd]. apply bytes_ok_take. now apply bytes_ok_drop. Qed.

Lemma bytes_ok_sub s k n h : bytes_ok (snd s) -> subU s k n = Ok h -> bytes_ok (snd h).
Proof.
  intros Hok H. apply subU_inv in H. destruct H as (_ & ->). now apply bytes_ok_window.
Qed.

Ltac rdok s i :=
  let v := fresh "v" in let E := fresh "E" in
  destruct (rdU_ok s i) as (v & E); [lia|]; rewrite E; cbn [bind].

Lemma v4hdr_shape s :
  match Ipv4HeaderSlice.from_slice s with
  | Ok h => 20 <= s_len h /\ s_len h <= s_len s /\ s_off h = s_off s /\ subU s 0 (s_len h) = Ok h
  | Err _ => True
  | Bug _ => False
  end.
Proof.
  unfold Ipv4HeaderSlice.from_slice.
  destruct (s_len s <? 20) eqn:E20; [exact I|].
  rdok s 0.
  destruct (negb (N.shiftr v 4 =? 4)); [exact I|].
  destruct (N.land v 15 <? 5) eqn:Ei; [exact I|].
  destruct (s_len s <? N.land v 15 * 4) eqn:El; [exact I|].
  rewrite subU_eq by lia.
  rewrite s_len_sub by lia. rewrite subU_eq by lia.
  repeat split; try lia. unfold s_off; cbn [fst]; lia.
Qed.

Lemma v6hdr_shape s :
  match Ipv6HeaderSlice.from_slice s with
  | Ok h => s_len h = 40 /\ 40 <= s_len s /\ s_off h = s_off s /\ subU s 0 40 = Ok h
  | Err _ => True
  | Bug _ => False
  end.
Proof.
  unfold Ipv6HeaderSlice.from_slice.
  destruct (s_len s <? 40) eqn:E; [exact I|].
  rdok s 0.
  destruct (negb (N.shiftr v 4 =? 6)); [exact I|].
  rewrite subU_eq by lia. rewrite s_len_sub by lia.
  repeat split; try lia. unfold s_off; cbn [fst]; lia.
Qed.

Lemma auth_shape s : bytes_ok (snd s) ->
  match IpAuthHeaderSlice.from_slice s with
  | Ok a => 12 <= s_len a /\ s_len a <= s_len s /\ s_off a = s_off s /\ auth_to_header a = Ok a
            /\ bytes_ok (snd a)
  | Err _ => True
  | Bug _ => False
  end.
Proof.
  intros Hok. unfold IpAuthHeaderSlice.from_slice.
  destruct (s_len s <? 12) eqn:E; [exact I|].
  rdok s 1. pose proof (rdU_byte s 1 v Hok E0) as Hv.
  destruct (v <? 1) eqn:E1; [exact I|].
  destruct (s_len s <? (v + 2) * 4) eqn:El; [exact I|].
  pose proof (subU_eq s 0 ((v + 2) * 4) ltac:(lia)) as Es. rewrite Es.
  rewrite s_len_sub by lia.
  split; [lia|]. split; [lia|]. split; [unfold s_off; cbn [fst]; lia|]. split.
  - unfold auth_to_header. rewrite s_len_sub by lia. rewrite subN_ok by lia. cbn [bind].
    replace ((v + 2) * 4 - 12) with ((v - 1) * 4) by lia.
    rewrite N.mod_mul by lia.
    destruct (1016 <? (v - 1) * 4) eqn:Eb; [lia|]. reflexivity.
  - eapply bytes_ok_sub; eauto.
Qed.

Lemma raw_shape s : bytes_ok (snd s) ->
  match Ipv6RawExtHeaderSlice.from_slice s with
  | Ok x => 8 <= s_len x /\ s_len x <= s_len s /\ s_off x = s_off s /\ raw_ext_to_header x = Ok x
  | Err _ => True
  | Bug _ => False
  end.
Proof.
  intros Hok. unfold Ipv6RawExtHeaderSlice.from_slice.
  destruct (s_len s <? 8) eqn:E; [exact I|].
  destruct (rd_lt_Some (snd s) 1) as (v & Ev); [unfold s_len in E; lia|]. rewrite Ev. cbn [bind].
  pose proof (rd_ok (snd s) 1 v Hok Ev) as Hv.
  destruct (s_len s <? (v + 1) * 8) eqn:El; [exact I|].
  rewrite subU_eq by lia. rewrite s_len_sub by lia.
  split; [lia|]. split; [lia|]. split; [unfold s_off; cbn [fst]; lia|].
  unfold raw_ext_to_header. rewrite s_len_sub by lia. rewrite subN_ok by lia. cbn [bind].
  replace ((v + 1) * 8 - 2 + 2) with ((v + 1) * 8) by lia.
  rewrite N.mod_mul by lia.
  destruct ((v + 1) * 8 - 2 <? 6) eqn:E6; [lia|].
  destruct (2046 <? (v + 1) * 8 - 2) eqn:E7; [lia|]. reflexivity.
Qed.

Lemma frag_shape s :
  match Ipv6FragmentHeaderSlice.from_slice s with
  | Ok x => s_len x = 8 /\ 8 <= s_len s /\ s_off x = s_off s
  | Err _ => True
  | Bug _ => False
  end.
Proof.
  unfold Ipv6FragmentHeaderSlice.from_slice.
  destruct (s_len s <? 8) eqn:E; [exact I|].
  rewrite subU_eq by lia. rewrite s_len_sub by lia. repeat split; try lia. unfold s_off; cbn [fst]; lia.
Qed.

Lemma frag_is_fragmenting_ok x : s_len x = 8 ->
  exists b, Ipv6FragmentHeaderSlice.is_fragmenting_payload x = Ok b.
Proof.
  intros H. unfold Ipv6FragmentHeaderSlice.is_fragmenting_payload,
    Ipv6FragmentHeaderSlice.more_fragments, Ipv6FragmentHeaderSlice.fragment_offset.
  rdok x 3. rdok x 2. eauto.
Qed.

Lemma win_sub o s k n : k + n <= s_len s -> win_of (o, take n (drop k (snd s))) = (o, n).
Proof. intros H. unfold win_of. rewrite (s_len_sub o s k n H). reflexivity. Qed.

Lemma win_take o s n : n <= s_len s -> win_of (o, take n (snd s)) = (o, n).
Proof. intros H. change (snd s) with (drop 0 (snd s)). apply win_sub. lia. Qed.

Lemma win_drop o s k : win_of (o, drop k (snd s)) = (o, s_len s - k).
Proof. unfold win_of. now rewrite s_len_drop. Qed.

Definition shift (o : N) (e : slice_error) : slice_error :=
  match e with ELen l => ELen (le_add_offset l o) | c => c end.

Lemma tr_fix_eq c p e : c_src c = ipp_src p ->
  tr_fix c e = le_add_offset (add_len_source p e) (c_offset c).
Proof.
  intros H. unfold tr_fix, add_len_source. destruct e as [r l sr ly o]. cbn.
  destruct sr; cbn; rewrite ?H; reflexivity.
Qed.

Lemma icmp4_shape s :
  match Icmpv4Slice.from_slice s with
  | Ok r => r = s /\ exists hl, Icmpv4Acc.header_len s = Ok hl /\ 8 <= hl /\ hl <= s_len s
  | Err _ => True
  | Bug _ => False
  end.
Proof.
  unfold Icmpv4Slice.from_slice, Icmpv4Acc.header_len.
  destruct (s_len s <? 8) eqn:E8; [exact I|].
  rdok s 0. rdok s 1.
  destruct (v =? 13) eqn:A; destruct (v =? 14) eqn:B; destruct (0 =? v0) eqn:C;
    destruct (20 =? s_len s) eqn:D; cbn; try exact I;
    (split; [reflexivity|]; eexists; split; [reflexivity|]; lia).
Qed.

Definition tr_rel (c : cursor) (p : ip_payload)
  (h : res (option htransport * hpayload)) (s : res sliced_packet) : Prop :=
  match h, s with
  | Ok (t, pl), Ok sp =>
      sp_link sp = sp_link (c_result c) /\ sp_exts sp = sp_exts (c_result c) /\
      sp_net sp = sp_net (c_result c) /\
      match sp_transport sp with
      | Some ts => exists t', t = Some t' /\ conv_tr ts = Ok (hview_tr t', hview_payload pl)
      | None => t = None /\ pl = HpIp p
      end
  | Err eh, Err es => es = shift (c_offset c) eh
  | _, _ => False
  end.

Ltac tr_ok :=
  unfold tr_rel, set_transport; cbn [sp_link sp_exts sp_net sp_transport map_len_err bind fst snd];
  repeat split; eexists; (split; [reflexivity|]); cbn [conv_tr hview_tr hview_payload].

Ltac tr_err Hsrc :=
  unfold lerr, tr_rel; cbn [map_len_err bind shift]; rewrite (tr_fix_eq _ _ _ Hsrc); reflexivity.

Lemma transport_agree c p :
  c_src c = ipp_src p -> sp_transport (c_result c) = None ->
  tr_rel c p (read_transport p) (transport_dispatch c p).
Proof.
  intros Hsrc Hnone. unfold read_transport, transport_dispatch.
  destruct (ipp_fragmented p).
  { cbn. rewrite Hnone. repeat split. }
  destruct (ipp_number p =? IPN_ICMP) eqn:E1.
  { unfold slice_icmp4. pose proof (icmp4_shape (ipp_slice p)) as Sh.
    destruct (Icmpv4Slice.from_slice (ipp_slice p)) as [r|[l|ce]|b]; cbn [map_len_err bind]; try contradiction.
    - destruct Sh as (-> & hl & Ehl & H8 & Hl).
      unfold Icmpv4Acc.header, Icmpv4Acc.payload. rewrite Ehl. cbn [bind].
      rewrite subU_eq by lia. rewrite subN_ok by lia. cbn [bind]. rewrite subU_eq by lia. cbn [bind].
      tr_ok. rewrite Ehl. cbn [bind].
      rewrite ?win_take by lia. rewrite ?win_sub by lia.
      unfold s_off. rewrite N.add_0_r. reflexivity.
    - unfold tr_rel; cbn [shift]. now rewrite (tr_fix_eq c p l Hsrc).
    - reflexivity. }
  assert (N1 : forall X Y : res sliced_packet, (if ipp_number p =? IPN_ICMP then X else Y) = Y) by (now rewrite E1).
  destruct (ipp_number p =? IPN_ICMPV6) eqn:E4.
  { assert (E2 : (ipp_number p =? IPN_UDP) = false).
    { apply N.eqb_eq in E4. rewrite E4. reflexivity. }
    assert (E3 : (ipp_number p =? IPN_TCP) = false).
    { apply N.eqb_eq in E4. rewrite E4. reflexivity. }
    rewrite E2, E3. unfold slice_icmp6, Icmpv6Slice.from_slice, Icmpv6Slice.MAX_LEN.
    destruct (s_len (ipp_slice p) <? 8) eqn:E8.
    { tr_err Hsrc. }
    destruct (4294967295 <? s_len (ipp_slice p)) eqn:Em.
    { tr_err Hsrc. }
    cbn [map_len_err bind]. unfold Icmpv6Acc.header, Icmpv6Acc.payload.
    rewrite subU_eq by lia. rewrite subN_ok by lia. cbn [bind]. rewrite subU_eq by lia. cbn [bind].
    tr_ok.
    rewrite ?win_take by lia. rewrite ?win_sub by lia.
    unfold s_off. rewrite N.add_0_r. reflexivity. }
  destruct (ipp_number p =? IPN_UDP) eqn:E2.
  { unfold slice_udp.
    assert (Sh : match UdpSlice.from_slice (ipp_slice p) with
                 | Ok u => 8 <= s_len u | Err _ => True | Bug _ => False end).
    { unfold UdpSlice.from_slice, UdpSlice.header_from_slice, UdpSlice.length.
      destruct (s_len (ipp_slice p) <? 8) eqn:E8; [exact I|].
      rewrite subU_eq by lia. cbn [bind].
      destruct (rd16_ok (fst (ipp_slice p) + 0, take 8 (drop 0 (snd (ipp_slice p)))) 4) as (l & El).
      { rewrite s_len_sub by lia. lia. }
      rewrite El. cbn [bind].
      destruct (s_len (ipp_slice p) <? l) eqn:E9; [exact I|].
      destruct (l =? 0) eqn:E0; [lia|].
      destruct (l <? 8) eqn:E7; [exact I|].
      rewrite subU_eq by lia. rewrite s_len_sub by lia. lia. }
    destruct (UdpSlice.from_slice (ipp_slice p)) as [u|[l|ce]|b]; cbn [map_len_err bind]; try contradiction.
    - unfold UdpAcc.to_header, UdpAcc.payload.
      rewrite subU_eq by lia. rewrite subN_ok by lia. cbn [bind]. rewrite subU_eq by lia. cbn [bind].
      tr_ok.
      rewrite ?win_take by lia. rewrite ?win_sub by lia.
      unfold s_off. rewrite N.add_0_r. reflexivity.
    - unfold tr_rel; cbn [shift]. now rewrite (tr_fix_eq c p l Hsrc).
    - reflexivity. }
  destruct (ipp_number p =? IPN_TCP) eqn:E3; [|cbn; rewrite Hnone; repeat split].
  unfold slice_tcp, TcpHeader.from_slice, TcpHeaderSlice.from_slice, TcpSlice.from_slice.
  set (s := ipp_slice p).
  destruct (s_len s <? 20) eqn:E20.
  { tr_err Hsrc. }
  rdok s 12.
  set (hl := N.shiftr (N.land v 240) 2).
  destruct (hl <? 20) eqn:Eh; [reflexivity|].
  destruct (s_len s <? hl) eqn:El.
  { tr_err Hsrc. }
  rewrite subU_eq by lia. cbn [bind map_len_err].
  rewrite s_len_sub by lia. rewrite idx_from_eq by lia. cbn [bind map_len_err fst snd].
  tr_ok.
  rewrite ?win_take by lia. rewrite ?win_sub by lia. rewrite win_drop.
  unfold s_off. rewrite N.add_0_r. reflexivity.
Qed.

Lemma v4_accessors h : 20 <= s_len h ->
  (exists fr, Ipv4HeaderSlice.is_fragmenting_payload h = Ok fr) /\
  (exists pr, Ipv4HeaderSlice.protocol h = Ok pr) /\
  (exists tl, Ipv4HeaderSlice.total_len h = Ok tl).
Proof.
  intros H. split; [|split].
  - unfold Ipv4HeaderSlice.is_fragmenting_payload, Ipv4HeaderSlice.more_fragments,
      Ipv4HeaderSlice.fragments_offset.
    rdok h 6. rdok h 7. eauto.
  - unfold Ipv4HeaderSlice.protocol. rdok h 9. eauto.
  - unfold Ipv4HeaderSlice.total_len. apply rd16_ok. lia.
Qed.

Definition ip4_rel (s : slice) (h : res (ip_headers * ip_payload)) (r : res ipv4_slice) : Prop :=
  match h, r with
  | Ok (ih, p), Ok v =>
      ih = IhV4 (v4_header v) (v4_auth v) /\ p = v4_payload v /\ s_off s <= s_off (ipp_slice p)
  | Err e, Err e' => e = e'
  | _, _ => False
  end.

Lemma v4_exts_agree header hp :
  bytes_ok (snd hp) -> 20 <= s_len header ->
  ip4_rel hp (IpHeaders.v4_exts header hp) (Ipv4Slice.finish header hp).
Proof.
  intros Hok H20. unfold IpHeaders.v4_exts, Ipv4Slice.finish, Ipv4Extensions.from_slice.
  destruct (v4_accessors header H20) as ((fr & Efr) & (pr & Epr) & _).
  rewrite Efr, Epr. cbn [bind]. rewrite (N.eqb_sym IPN_AUTH pr).
  destruct (pr =? IPN_AUTH).
  - pose proof (auth_shape hp Hok) as Sh.
    destruct (IpAuthHeaderSlice.from_slice hp) as [a|[l|ce]|b]; cbn [bind]; try contradiction.
    + destruct Sh as (A12 & Ale & Aoff & Ath & _).
      rewrite idx_from_eq by lia. rewrite subN_ok by lia. cbn [bind].
      rewrite subU_rest by lia. cbn [bind].
      unfold IpAuthHeaderSlice.next_header. rdok a 0. rewrite Ath. cbn [bind]. rewrite ?Efr. cbn [bind].
      unfold ip4_rel. cbn [v4_header v4_auth v4_payload ipp_slice]. repeat split.
      unfold s_off. cbn [fst]. lia.
    + reflexivity.
    + reflexivity.
  - cbn [bind]. rewrite ?Efr. cbn [bind]. unfold ip4_rel. cbn [v4_header v4_auth v4_payload ipp_slice].
    repeat split. lia.
Qed.

Lemma drop_drop0 {A} (l : list A) k : drop 0 (drop k l) = drop k l.
Proof. reflexivity. Qed.

Lemma ip4_rel_mono s s' h r : s_off s <= s_off s' -> ip4_rel s' h r -> ip4_rel s h r.
Proof.
  unfold ip4_rel. intros L. destruct h as [[ih p]|e|b]; destruct r as [v|e'|b']; auto.
  intros (A & B & C). repeat split; auto. lia.
Qed.

Lemma v4_agree s : bytes_ok (snd s) ->
  ip4_rel s (IpHeaders.from_ipv4_slice s) (Ipv4Slice.from_slice s).
Proof.
  intros Hok. unfold IpHeaders.from_ipv4_slice, Ipv4Slice.from_slice, Ipv4Header.from_slice.
  pose proof (v4hdr_shape s) as Sh.
  destruct (Ipv4HeaderSlice.from_slice s) as [h|e|b]; cbn [bind]; try contradiction; [|reflexivity].
  destruct Sh as (H20 & Hle & Hoff & Hsub).
  rewrite idx_from_eq by lia. cbn [bind].
  destruct (v4_accessors h H20) as (_ & _ & (tl & Etl)). rewrite Etl. cbn [bind].
  destruct (tl <? s_len h) eqn:E1.
  { destruct (s_len h <=? tl) eqn:E1'; [lia|]. reflexivity. }
  destruct (s_len h <=? tl) eqn:E1'; [|lia].
  rewrite subN_ok by lia. cbn [bind]. rewrite s_len_drop.
  destruct (s_len s <? tl) eqn:E2.
  { destruct (s_len s - s_len h <? tl - s_len h) eqn:E2'; [|lia]. reflexivity. }
  destruct (s_len s - s_len h <? tl - s_len h) eqn:E2'; [lia|].
  rewrite (subU_eq (fst s + s_len h, drop (s_len h) (snd s)) 0 (tl - s_len h))
    by (rewrite s_len_drop; lia).
  rewrite subU_eq by lia. cbn [bind fst snd]. rewrite drop_drop0, N.add_0_r.
  eapply ip4_rel_mono; [|apply v4_exts_agree; auto].
  - unfold s_off. cbn [fst]. lia.
  - now apply bytes_ok_window.
Qed.

Definition inv6 (base : slice) (x : exts6) (fl : fill) (fr : bool) (rest : slice) : Prop :=
  f_dest fl = is_some (x_dest x) /\ f_route fl = is_some (x_route x) /\
  f_fdest fl = is_some (x_fdest x) /\ f_frag fl = is_some (x_frag x) /\
  f_auth fl = is_some (x_auth x) /\
  Ipv6Extensions.is_fragmenting_payload x = Ok fr /\
  exts6_len x + s_len rest = s_len base /\
  exts6_any x = (0 <? exts6_len x) /\
  s_off rest = s_off base + exts6_len x /\
  (x_route x = None -> x_fdest x = None).

Definition walk_rel (base : slice) (h : res (exts6 * N * slice)) (s : res (slice * N * bool)) : Prop :=
  match h, s with
  | Ok (x', nh', r'), Ok (r'', nh'', fr'') =>
      r'' = r' /\ nh'' = nh' /\ (exists fl', inv6 base x' fl' fr'' r') /\ bytes_ok (snd r')
  | Err e, Err e' => e = e'
  | _, _ => False
  end.


(* The struct side of `refilled` and `fill_add`: whether the slot that a header announced by
   number nh goes to is occupied, and the struct after storing h there.  A routing header
   resets the final destination options, as Ipv6Extensions::from_slice does. *)
Definition exts6_taken (x : exts6) (nh : N) : bool :=
  if nh =? IPN_DEST_OPTIONS then (if is_some (x_route x) then is_some (x_fdest x) else is_some (x_dest x))
  else if nh =? IPN_ROUTE then is_some (x_route x)
  else if nh =? IPN_FRAG then is_some (x_frag x)
  else if nh =? IPN_AUTH then is_some (x_auth x)
  else false.

Definition exts6_put (x : exts6) (nh : N) (h : slice) : exts6 :=
  if nh =? IPN_DEST_OPTIONS then
    (if is_some (x_route x) then mkExts6 (x_hbh x) (x_dest x) (x_route x) (Some h) (x_frag x) (x_auth x)
     else mkExts6 (x_hbh x) (Some h) (x_route x) (x_fdest x) (x_frag x) (x_auth x))
  else if nh =? IPN_ROUTE then mkExts6 (x_hbh x) (x_dest x) (Some h) None (x_frag x) (x_auth x)
  else if nh =? IPN_FRAG then mkExts6 (x_hbh x) (x_dest x) (x_route x) (x_fdest x) (Some h) (x_auth x)
  else if nh =? IPN_AUTH then mkExts6 (x_hbh x) (x_dest x) (x_route x) (x_fdest x) (x_frag x) (Some h)
  else x.

Lemma inv6_refilled base x fl fr rest nh :
  inv6 base x fl fr rest -> refilled fl nh = exts6_taken x nh.
Proof. intros (I1 & I2 & I3 & I4 & I5 & _). unfold refilled. now rewrite I1, I2, I3, I4, I5. Qed.

Lemma inv6_rest_le base x fl fr rest : inv6 base x fl fr rest -> s_len rest <= s_len base.
Proof. intros (_ & _ & _ & _ & _ & _ & I7 & _). lia. Qed.

Definition fill_of (x : exts6) : fill :=
  mkFill (is_some (x_dest x)) (is_some (x_route x)) (is_some (x_fdest x)) (is_some (x_frag x))
    (is_some (x_auth x)).

(* what storing a header in a free slot changes *)
Lemma exts6_put_spec x nh h :
  is_ext_number nh = true -> exts6_taken x nh = false -> (x_route x = None -> x_fdest x = None) ->
  exts6_len (exts6_put x nh h) = exts6_len x + s_len h /\
  exts6_any (exts6_put x nh h) = true /\
  fill_of (exts6_put x nh h) = fill_add (fill_of x) nh /\
  x_frag (exts6_put x nh h) = (if nh =? IPN_FRAG then Some h else x_frag x) /\
  ((nh =? IPN_FRAG) = true -> x_frag x = None) /\
  (x_route (exts6_put x nh h) = None -> x_fdest (exts6_put x nh h) = None).
Proof.
  unfold is_ext_number, exts6_taken, exts6_put, exts6_len, exts6_any, fill_add, fill_of.
  intros Hext Hfree Hfd.
  destruct x as [hb de ro fd fg au]. cbn [x_hbh x_dest x_route x_fdest x_frag x_auth f_dest f_route f_fdest f_frag f_auth] in *.
  destruct (nh =? IPN_DEST_OPTIONS) eqn:E60.
  { replace (nh =? IPN_FRAG) with false by (apply N.eqb_eq in E60; now subst nh).
    destruct ro; cbn [is_some] in *; [destruct fd|destruct de]; try discriminate;
      cbn [olen is_some x_hbh x_dest x_route x_fdest x_frag x_auth];
      rewrite ?Bool.orb_true_r; repeat split; auto; try discriminate; lia. }
  destruct (nh =? IPN_ROUTE) eqn:E43.
  { replace (nh =? IPN_FRAG) with false by (apply N.eqb_eq in E43; now subst nh).
    destruct ro; [discriminate|]. rewrite (Hfd eq_refl).
    cbn [olen is_some x_hbh x_dest x_route x_fdest x_frag x_auth];
      rewrite ?Bool.orb_true_r; repeat split; auto; try discriminate; lia. }
  destruct (nh =? IPN_FRAG).
  { destruct fg; [discriminate|].
    cbn [olen is_some x_hbh x_dest x_route x_fdest x_frag x_auth];
      rewrite ?Bool.orb_true_r; repeat split; auto; lia. }
  destruct (nh =? IPN_AUTH); [|discriminate].
  destruct au; [discriminate|].
  cbn [olen is_some x_hbh x_dest x_route x_fdest x_frag x_auth];
      rewrite ?Bool.orb_true_r; repeat split; auto; try discriminate; lia.
Qed.

Lemma inv6_fill base x fl fr rest : inv6 base x fl fr rest -> fl = fill_of x.
Proof. intros (I1 & I2 & I3 & I4 & I5 & _). destruct fl. cbn in *. unfold fill_of. congruence. Qed.

Lemma inv6_put base x fl fr rest nh h fr' :
  inv6 base x fl fr rest -> is_ext_number nh = true -> exts6_taken x nh = false ->
  0 < s_len h <= s_len rest ->
  (if nh =? IPN_FRAG
   then exists fb, Ipv6FragmentHeaderSlice.is_fragmenting_payload h = Ok fb /\ fr' = fr || fb
   else fr' = fr) ->
  inv6 base (exts6_put x nh h) (fill_add fl nh) fr' (fst rest + s_len h, drop (s_len h) (snd rest)).
Proof.
  intros Hinv Hext Hfree Hlen Hfr. rewrite (inv6_fill _ _ _ _ _ Hinv).
  destruct Hinv as (_ & _ & _ & _ & _ & I6 & I7 & I8 & I9 & I10).
  destruct (exts6_put_spec x nh h Hext Hfree I10) as (Len & Any & Fill & Frag & Nofrag & Fd).
  rewrite <- Fill. unfold inv6, fill_of. cbn [f_dest f_route f_fdest f_frag f_auth].
  rewrite s_len_drop, Len, Any. unfold s_off in *. cbn [fst].
  do 5 (split; [reflexivity|]). split.
  { unfold Ipv6Extensions.is_fragmenting_payload in *. rewrite Frag.
    destruct (nh =? IPN_FRAG).
    - destruct Hfr as (fb & Efb & ->). rewrite (Nofrag eq_refl) in I6. injection I6 as <-. exact Efb.
    - now subst fr'. }
  split; [lia|]. split; [|split; [lia|exact Fd]].
  symmetry. apply N.ltb_lt. lia.
Qed.

(* a raw extension header at the front of rest: the struct side and the slicing side consume
   it alike, or fail alike *)
Lemma raw_arm_agree base rest (L : slice -> slice -> N -> res (exts6 * N * slice))
  (W : slice -> N -> res (slice * N * bool)) :
  bytes_ok (snd rest) -> s_len rest <= s_len base ->
  (forall h nh', 0 < s_len h <= s_len rest -> walk_rel base (L h (fst rest + s_len h, drop (s_len h) (snd rest)) nh') (W (fst rest + s_len h, drop (s_len h) (snd rest)) nh')) ->
  walk_rel base
    (let* r := Ipv6Extensions.raw_step base rest in let '(h, rest', nh') := r in L h rest' nh')
    (let* off := subN (s_len base) (s_len rest) in
     let* sl := map_len_err (fun e => le_add_offset e off) (Ipv6RawExtHeaderSlice.from_slice rest) in
     let* n := subN (s_len rest) (s_len sl) in
     let* rest' := subU rest (s_len sl) n in
     let* nh' := Ipv6RawExtHeaderSlice.next_header sl in
     W rest' nh').
Proof.
  intros Hok Hle Next. unfold Ipv6Extensions.raw_step. rewrite (subN_ok _ _ Hle). cbn [bind].
  pose proof (raw_shape rest Hok) as Sh.
  destruct (Ipv6RawExtHeaderSlice.from_slice rest) as [sl|[l|ce]|b]; cbn [map_len_err bind];
    [|reflexivity|reflexivity|contradiction].
  destruct Sh as (S8 & Sle & _ & Sth).
  rewrite (idx_from_eq _ _ Sle), (subN_ok _ _ Sle). cbn [bind]. rewrite (subU_rest _ _ Sle). cbn [bind].
  unfold Ipv6RawExtHeaderSlice.next_header. rdok sl 0. rewrite Sth. cbn [bind].
  apply Next. lia.
Qed.

Lemma walk_agree fuel : forall base x rest nh fl fr,
  inv6 base x fl fr rest -> bytes_ok (snd rest) -> (N.to_nat (s_len rest) < fuel)%nat ->
  walk_rel base (Ipv6Extensions.loop fuel base x rest nh)
                (Cut.walk true fuel (s_len base) rest nh fr fl).
Proof.
  induction fuel as [|f IH]; intros base x rest nh fl fr Hinv Hok Hfuel; [lia|].
  assert (Stop : walk_rel base (Ok (x, nh, rest)) (Ok (rest, nh, fr))).
  { unfold walk_rel. split; [reflexivity|]. split; [reflexivity|]. split; [now exists fl|assumption]. }
  pose proof (inv6_rest_le _ _ _ _ _ Hinv) as Hle.
  assert (Next : forall h nh' fr', exts6_taken x nh = false -> is_ext_number nh = true ->
            0 < s_len h <= s_len rest ->
            (if nh =? IPN_FRAG
             then exists fb, Ipv6FragmentHeaderSlice.is_fragmenting_payload h = Ok fb /\ fr' = fr || fb
             else fr' = fr) ->
            walk_rel base (Ipv6Extensions.loop f base (exts6_put x nh h) (fst rest + s_len h, drop (s_len h) (snd rest)) nh')
                          (Cut.walk true f (s_len base) (fst rest + s_len h, drop (s_len h) (snd rest)) nh' fr' (fill_add fl nh))).
  { intros h nh' fr' Hfree Hext Hlen Hfr.
    apply IH; [now apply (inv6_put _ _ _ fr)|now apply bytes_ok_rest|rewrite s_len_drop; lia]. }
  cbn [Ipv6Extensions.loop Cut.walk andb].
  rewrite (inv6_refilled _ _ _ _ _ nh Hinv). unfold exts6_taken. clear Hinv.
  destruct x as [hb de ro fd fg au]. cbn [x_hbh x_dest x_route x_fdest x_frag x_auth].
  destruct (nh =? IPN_HOP_BY_HOP) eqn:E0.
  { apply N.eqb_eq in E0. subst nh. reflexivity. }
  destruct (nh =? IPN_DEST_OPTIONS) eqn:E60.
  { apply N.eqb_eq in E60. subst nh. cbn [orb].
    destruct ro as [rt|]; cbn [is_some].
    - destruct fd; [exact Stop|]. apply raw_arm_agree; auto.
      intros h nh' Hh. now apply (Next h nh' fr).
    - destruct de; [exact Stop|]. apply raw_arm_agree; auto.
      intros h nh' Hh. now apply (Next h nh' fr). }
  destruct (nh =? IPN_ROUTE) eqn:E43.
  { apply N.eqb_eq in E43. subst nh. cbn [orb].
    destruct ro; [exact Stop|]. apply raw_arm_agree; auto.
    intros h nh' Hh. now apply (Next h nh' fr). }
  cbn [orb].
  destruct (nh =? IPN_FRAG) eqn:E44.
  { apply N.eqb_eq in E44. subst nh. destruct fg; [exact Stop|]. cbn [is_some].
    rewrite (subN_ok _ _ Hle). cbn [bind].
    pose proof (frag_shape rest) as Sh.
    destruct (Ipv6FragmentHeaderSlice.from_slice rest) as [sl|[l|ce]|b]; cbn [map_len_err bind];
      [|reflexivity|reflexivity|contradiction].
    destruct Sh as (S8 & Sle & _).
    rewrite S8. rewrite (idx_from_eq _ _ Sle), (subN_ok _ _ Sle). cbn [bind]. rewrite (subU_rest _ _ Sle). cbn [bind].
    unfold Ipv6FragmentHeaderSlice.next_header. rdok sl 0.
    destruct (frag_is_fragmenting_ok sl S8) as (fb & Efb). rewrite Efb. cbn [bind]. rewrite <- S8.
    apply (Next sl v (fr || fb)); [reflexivity|reflexivity|lia|]. exists fb. now split. }
  destruct (nh =? IPN_AUTH) eqn:E51; [|exact Stop].
  apply N.eqb_eq in E51. subst nh. destruct au; [exact Stop|]. cbn [is_some].
  rewrite (subN_ok _ _ Hle). cbn [bind].
  pose proof (auth_shape rest Hok) as Sh.
  destruct (IpAuthHeaderSlice.from_slice rest) as [sl|[l|ce]|b]; cbn [map_len_err bind];
    [|reflexivity|reflexivity|contradiction].
  destruct Sh as (S12 & Sle & _ & Sth & _).
  rewrite (idx_from_eq _ _ Sle), (subN_ok _ _ Sle). cbn [bind]. rewrite (subU_rest _ _ Sle). cbn [bind].
  unfold IpAuthHeaderSlice.next_header. rdok sl 0. rewrite Sth. cbn [bind].
  apply (Next sl v fr); [reflexivity|reflexivity|lia|reflexivity].
Qed.
