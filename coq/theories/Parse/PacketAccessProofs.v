(* Parse/PacketAccessProofs.v -- the packet-level accessors of a STRICT SlicedPacket
   (Parse/PacketAccess.v) never reach Bug and hand back windows of the input, for every
   result of the four strict entry points.

   Ingredients: provenance of every stored component (`sliced_wf`, Parse/AccessProofs.v) and
   the capacity fact `len (sp_exts p) <= 3` of Defrag/PacketStepProofs.v (`exts_cap_entry`):
   `vlan_ids` pushes at most once per link extension, so `push_unchecked` never meets a full
   ArrayVec<VlanId, 3>.  No `bytes_ok` hypothesis is needed for the packet-level accessors. *)
From EP Require Import Base.Bytes Parse.Types Parse.Slices Parse.Cursor Parse.Repr Parse.Access
  Parse.AccessProofs Parse.ProvFacts Parse.PacketAccess.
From EP Require Defrag.PacketStep Defrag.PacketStepProofs.
From Coq Require Import ZArith Lia ZifyN ZifyBool List.
Import ListNotations.

Local Open Scope N_scope.

Section PA.
  Variable bs : bytes.
  Import SlicedPacketPA.

  (* push_unchecked into ArrayVec<VlanId, 3>: at most one push per link extension *)
  Lemma vlan_ids_loop_ok exts :
    Forall (ext_prov bs) exts ->
    forall acc, len acc + len exts <= LINK_EXTS_CAP ->
      exists l, PacketStep.vlan_ids_loop exts acc = Ok l /\ len l <= len acc + len exts.
  Proof.
    induction 1 as [|x l Px Pl IH]; intros acc L; cbn [PacketStep.vlan_ids_loop].
    - exists acc. split; [reflexivity|]. rewrite len_nil. lia.
    - rewrite len_cons in L |- *. destruct x as [s|m].
      + destruct Px as (src & I & E). apply vlan_wf in E. destruct E as (-> & W). unfold wf_vlan in W.
        unfold SingleVlanA.vlan_identifier.
        destruct (rdU_ok src 0) as (a & Ea); [lia|]. destruct (rdU_ok src 1) as (b & Eb); [lia|].
        rewrite Ea. cbn [bind]. rewrite Eb. cbn [bind].
        destruct (len acc <? LINK_EXTS_CAP) eqn:C; [|exfalso; lia].
        destruct (IH (acc ++ [be16 (N.land a 15) b])) as (l' & E' & L').
        { rewrite len_app, len_cons, len_nil. lia. }
        exists l'. split; [exact E'|]. rewrite len_app, len_cons, len_nil in L'. lia.
      + destruct (IH acc) as (l' & E' & L'); [lia|]. exists l'. split; [exact E'|lia].
  Qed.

  Lemma scan_ok exts : Forall (ext_prov bs) exts -> forall src, okr (len_source_scan exts src).
  Proof.
    induction 1 as [|x l Px Pl IH]; intros src; cbn [len_source_scan]; [apply okr_Ok|].
    destruct x as [s|m]; [apply IH|].
    destruct Px as (src0 & I & E). apply macsec_wf in E. destruct E as ((t & Et & Lh) & _ & _).
    assert (L6 : 6 <= s_len (ms_header m)) by (rewrite Lh; lia).
    unfold MacsecHeaderA.short_len.
    destruct (rdU_ok (ms_header m) 1) as (b & Eb); [lia|]. rewrite Eb. cbn [bind]. apply IH.
  Qed.

  Lemma last_ext_in l x : last_ext l = Some x -> In x l.
  Proof.
    unfold last_ext. destruct (rev l) as [|y r] eqn:E; [discriminate|]. intros X. injection X as ->.
    exact (rev_head_in l x r E).
  Qed.

  Lemma ether_payload_ok p :
    sliced_wf bs p -> exists o, ether_payload p = Ok o /\ optP (fun e => in_buf bs (ep_slice e)) o.
  Proof.
    intros (A & B & _). unfold ether_payload.
    destruct (last_ext (sp_exts p)) as [x|] eqn:El.
    - apply last_ext_in in El. destruct (scan_ok _ B LsSlice) as (sc & ->). cbn [bind].
      rewrite Forall_forall in B. pose proof (B x El) as Px. destruct x as [v|m].
      + destruct (vlan_payload_prov bs v Px) as (et & w & Eet & Ew & Iw).
        unfold SingleVlanA.payload. rewrite Eet. cbn [bind]. rewrite Ew. cbn [bind].
        eexists. split; [reflexivity|exact Iw].
      + destruct Px as (src & I & E). apply macsec_wf in E. destruct E as (_ & _ & Sp).
        unfold MacsecA.ether_payload, macsec_payload_slice in *.
        destruct (ms_payload m) as [e|ps]; cbn [bind].
        * eexists. split; [reflexivity|]. exact (sub_of_in_buf bs _ _ I Sp).
        * eexists. split; [reflexivity|]. exact Logic.I.
    - destruct (sp_link p) as [[s|h w|e]|]; cbn [optP] in A.
      + destruct (eth2_payload_prov bs s A) as (et & w & Eet & Ew & Iw).
        unfold Ethernet2A.payload. rewrite Eet. cbn [bind]. rewrite Ew. cbn [bind].
        eexists. split; [reflexivity|exact Iw].
      + destruct (sll_payload_prov bs h w A) as (v & pw & Ep & Epw & Ipw). rewrite Ep. cbn [bind].
        destruct v; try (eexists; split; [reflexivity|exact Logic.I]).
        unfold LinuxSllA.payload. cbn [fst]. rewrite Ep. cbn [bind]. rewrite Epw. cbn [bind fst snd].
        eexists. split; [reflexivity|exact Ipw].
      + eexists. split; [reflexivity|]. exact A.
      + eexists. split; [reflexivity|]. exact Logic.I.
  Qed.

  Lemma payload_ether_type_ok p : sliced_wf bs p -> okr (payload_ether_type p).
  Proof.
    intros (A & B & _). unfold payload_ether_type.
    destruct (sp_net p); [apply okr_Ok|]. destruct (sp_transport p); [apply okr_Ok|].
    destruct (last_ext (sp_exts p)) as [x|] eqn:El.
    - apply last_ext_in in El. rewrite Forall_forall in B. pose proof (B x El) as Px. destruct x as [v|m].
      + destruct (vlan_payload_prov bs v Px) as (et & _ & -> & _). apply okr_Ok.
      + destruct Px as (src & I & E). apply macsec_wf in E. destruct E as ((t & Et & Lh) & _ & _).
        unfold MacsecA.next_ether_type. unf_macsech. rewrite Et. cbn [bind].
        destruct (N.land t 12 =? 0) eqn:C1; cbn [negb]; [|apply okr_Ok].
        destruct (bitset t 32) eqn:C2; oksolve.
    - destruct (sp_link p) as [[s|h w|e]|]; cbn [optP] in A; try apply okr_Ok.
      + destruct (eth2_payload_prov bs s A) as (et & _ & -> & _). apply okr_Ok.
      + destruct (sll_payload_prov bs h w A) as (v & _ & -> & _). cbn [bind]. destruct v; apply okr_Ok.
  Qed.

  Lemma net_v4_facts v : net_prov bs (NtIpv4 v) -> exists src, in_buf bs src /\ wf_ipv4 v /\ ipv4_in v src.
  Proof.
    intros (src & I & [E|E]); exists src; (split; [exact I|]).
    - now apply ipv4_wf.
    - exact (ip_wf _ _ E).
  Qed.
  Lemma net_v6_facts v : net_prov bs (NtIpv6 v) -> exists src, in_buf bs src /\ wf_ipv6 v /\ ipv6_in v src.
  Proof.
    intros (src & I & [E|E]); exists src; (split; [exact I|]).
    - now apply ipv6_wf.
    - exact (ip_wf _ _ E).
  Qed.

  Lemma ip_payload_ok p :
    sliced_wf bs p -> exists o, ip_payload p = Ok o /\ optP (fun i => in_buf bs (ipp_slice i)) o.
  Proof.
    intros (_ & _ & C & _). unfold ip_payload.
    destruct (sp_net p) as [[v|v|a]|]; cbn [optP] in C;
      try (eexists; split; [reflexivity|exact Logic.I]).
    - destruct (net_v4_facts v C) as (src & I & _ & (_ & _ & Sp)).
      eexists. split; [reflexivity|]. cbn. eapply sub_of_in_buf; [exact I|exact Sp].
    - destruct (net_v6_facts v C) as (src & I & _ & (_ & _ & Sp)).
      eexists. split; [reflexivity|]. cbn. eapply sub_of_in_buf; [exact I|exact Sp].
  Qed.

  Lemma is_ip_payload_fragmented_ok p : sliced_wf bs p -> okr (is_ip_payload_fragmented p).
  Proof.
    intros (_ & _ & C & _). unfold is_ip_payload_fragmented.
    destruct (sp_net p) as [[v|v|a]|]; cbn [optP] in C; try apply okr_Ok.
    destruct (net_v4_facts v C) as (src & I & ((L1 & L2) & _) & _).
    unfold Ipv4SliceA.is_payload_fragmented. unf_ipv4h. oksolve.
  Qed.

  Lemma vlan_loop_ok exts : Forall (ext_prov bs) exts ->
    forall r, optP (in_buf bs) r ->
      optP (fun ab => in_buf bs (fst ab) /\ optP (in_buf bs) (snd ab)) (vlan_loop exts r).
  Proof.
    induction 1 as [|x l Px Pl IH]; intros r R; cbn [vlan_loop].
    - destruct r; cbn; auto.
    - destruct x as [s|m]; [|now apply IH].
      destruct Px as (src & I & E). apply vlan_wf in E. destruct E as (-> & _).
      destruct r as [outer|]; [cbn; auto|]. now apply IH.
  Qed.

  Lemma packet_accessors_ok p :
    sliced_wf bs p -> len (sp_exts p) <= LINK_EXTS_CAP -> Forall nobug (packet_accessors p).
  Proof.
    intros W L. unfold packet_accessors.
    constructor; [apply nobug_run, okr_nobug; now apply payload_ether_type_ok|].
    constructor.
    { apply nobug_run, okr_nobug. destruct (ether_payload_ok p W) as (o & -> & _). apply okr_Ok. }
    constructor.
    { apply nobug_run, okr_nobug. destruct (ip_payload_ok p W) as (o & -> & _). apply okr_Ok. }
    constructor; [apply nobug_run, okr_nobug; now apply is_ip_payload_fragmented_ok|].
    constructor; [intros b; discriminate|].
    constructor; [|constructor].
    apply nobug_run, okr_nobug. unfold vlan_ids, PacketStep.vlan_ids. destruct W as (_ & B & _).
    destruct (vlan_ids_loop_ok _ B []) as (l & -> & _); [rewrite len_nil; lia|]. apply okr_Ok.
  Qed.

  Lemma packet_windows_ok p : sliced_wf bs p -> Forall (buf_ok bs) (packet_windows p).
  Proof.
    intros W. unfold packet_windows. repeat (apply Forall_app; split).
    - destruct (ether_payload_ok p W) as (o & -> & P). destruct o as [e|]; cbn [lift_opt]; [|constructor].
      constructor; [|constructor]. now apply buf_ok_Ok.
    - destruct (ip_payload_ok p W) as (o & -> & P). destruct o as [i|]; cbn [lift_opt]; [|constructor].
      constructor; [|constructor]. now apply buf_ok_Ok.
    - unfold vlan. cbn [lift_opt]. destruct W as (_ & B & _).
      pose proof (vlan_loop_ok _ B None Logic.I) as V.
      destruct (vlan_loop (sp_exts p) None) as [(a, b)|]; [|constructor]. cbn [optP fst snd] in *.
      destruct V as (Va & Vb). constructor; [now apply buf_ok_Ok|].
      destruct b as [i|]; [|constructor]. constructor; [|constructor]. now apply buf_ok_Ok.
  Qed.

  Lemma vlan_ids_bound p :
    sliced_wf bs p -> len (sp_exts p) <= LINK_EXTS_CAP ->
    exists l, vlan_ids p = Ok l /\ len l <= len (sp_exts p).
  Proof.
    intros (_ & B & _) L. unfold vlan_ids, PacketStep.vlan_ids.
    destruct (vlan_ids_loop_ok _ B []) as (l & E & Ll); [rewrite len_nil; lia|].
    exists l. split; [exact E|]. rewrite len_nil in Ll. lia.
  Qed.
End PA.

(* a strict result holds at most LINK_EXTS_CAP = 3 link extensions (the guard of the cursor loop) *)
Lemma entry_exts_cap bs et p : entry bs et p -> len (sp_exts p) <= LINK_EXTS_CAP.
Proof.
  unfold LINK_EXTS_CAP. intros [H|[H|[H|H]]].
  - exact (PacketStepProofs.exts_cap_entry PacketStep.EEthernet bs p H).
  - exact (PacketStepProofs.exts_cap_entry PacketStep.ELinuxSll bs p H).
  - exact (PacketStepProofs.exts_cap_entry (PacketStep.EEtherType et) bs p H).
  - exact (PacketStepProofs.exts_cap_entry PacketStep.EIp bs p H).
Qed.

(* C01: none of payload_ether_type / ether_payload / ip_payload / is_ip_payload_fragmented /
   vlan / vlan_ids (push_unchecked) reaches a failing unchecked primitive on a strict result;
   vlan_ids returns at most as many ids as there are link extensions, hence at most 3 *)
Theorem strict_packet_accessors_no_bug bs et p :
  entry bs et p ->
  len (sp_exts p) <= LINK_EXTS_CAP /\
  (forall r, In r (SlicedPacketPA.packet_accessors p) -> forall b, r <> Bug b) /\
  (exists l, SlicedPacketPA.vlan_ids p = Ok l /\ len l <= len (sp_exts p) /\ len l <= LINK_EXTS_CAP).
Proof.
  intros E. pose proof (sliced_wf_entry bs et p E) as W. pose proof (entry_exts_cap bs et p E) as L.
  split; [exact L|]. split.
  - pose proof (packet_accessors_ok bs p W L) as F. rewrite Forall_forall in F. exact F.
  - destruct (vlan_ids_bound bs p W L) as (l & El & Ll). exists l. split; [exact El|]. split; [exact Ll|lia].
Qed.

(* C02 reading: every run returns normally, and in fact with Ok *)
Theorem strict_packet_accessors_total bs et p :
  entry bs et p -> forall r, In r (SlicedPacketPA.packet_accessors p) -> r = Ok tt.
Proof.
  intros E r Hr. pose proof (sliced_wf_entry bs et p E) as W. pose proof (entry_exts_cap bs et p E) as L.
  unfold SlicedPacketPA.packet_accessors in Hr. cbn [In] in Hr.
  assert (K : forall A (x : res A), okr x -> run x = Ok tt) by (intros A x (y & ->); reflexivity).
  destruct Hr as [<-|[<-|[<-|[<-|[<-|[<-|[]]]]]]]; apply K.
  - now apply (payload_ether_type_ok bs).
  - destruct (ether_payload_ok bs p W) as (o & -> & _). apply okr_Ok.
  - destruct (ip_payload_ok bs p W) as (o & -> & _). apply okr_Ok.
  - now apply (is_ip_payload_fragmented_ok bs).
  - apply okr_Ok.
  - destruct (vlan_ids_bound bs p W L) as (l & -> & _). apply okr_Ok.
Qed.

(* C01: every sub-slice handed back by a packet-level accessor (ether payload, IP payload, the
   outer / inner VLAN slice) lies inside the input and holds the input's bytes *)
Theorem strict_packet_windows_inside bs et p :
  entry bs et p ->
  forall r, In r (SlicedPacketPA.packet_windows p) ->
    exists w, r = Ok w /\ s_off w + s_len w <= len bs /\
              snd w = take (s_len w) (drop (s_off w) bs).
Proof.
  intros E r Hr. pose proof (sliced_wf_entry bs et p E) as W.
  pose proof (packet_windows_ok bs p W) as F. rewrite Forall_forall in F.
  destruct (F r Hr) as (w & -> & I). exists w. split; [reflexivity|now apply in_buf_window].
Qed.

(* the whole strict result: component accessors of Parse/Access.v + packet-level accessors *)
Theorem strict_all_accessors_no_bug bs et p :
  bytes_ok bs -> entry bs et p ->
  forall r, In r (SlicedPacketPA.accessors p) -> forall b, r <> Bug b.
Proof.
  intros Hok E r Hr. unfold SlicedPacketPA.accessors in Hr. apply in_app_or in Hr. destruct Hr as [Hr|Hr].
  - destruct (packet_accessors_no_bug bs et p Hok E) as (_ & F). now apply F.
  - destruct (strict_packet_accessors_no_bug bs et p E) as (_ & F & _). now apply F.
Qed.

Theorem strict_all_windows_inside bs et p :
  bytes_ok bs -> entry bs et p ->
  forall r, In r (SlicedPacketPA.windows p) ->
    exists w, r = Ok w /\ s_off w + s_len w <= len bs /\
              snd w = take (s_len w) (drop (s_off w) bs).
Proof.
  intros Hok E r Hr. unfold SlicedPacketPA.windows in Hr. apply in_app_or in Hr. destruct Hr as [Hr|Hr].
  - now apply (packet_windows_inside bs et p Hok E).
  - now apply (strict_packet_windows_inside bs et p E).
Qed.
