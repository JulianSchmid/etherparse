(* Parse/HdrLaxSlots.v -- property C04, the LAX pair: the slots of the
   struct Ipv6Extensions that LaxPacketHeaders returns, one by one, against the extension
   headers the (cut) LaxSlicedPacket result yields when iterated.  Same definitions
   (`slots_hold`, `chain`, Parse/HdrSlots.v) and the same plan as HdrSlots.v / HdrSlots2.v:
     lax_from_slice_slots   Ipv6Extensions::from_slice_lax holds a chain of its input (a stop
                            error ends the chain, the headers decoded in front of it stay);
     lexts_slots            that chain is what iterating the Ipv6ExtensionsSlice of the cut lax
                            slicing result yields (collect_chain of HdrSlots.v);
     lax_ip_slots ..        lifted over IpHeaders::from_slice_lax, add_ip, the VLAN / MACsec loop
                            (invariant lloop_inv of HdrLaxProofs3.v) and the three entry points. *)
From Coq Require Import ZArith Lia ZifyN ZifyBool List.
From EP Require Import Parse.AccessProofs.
From EP Require Import Base.Bytes Parse.Types Parse.Slices Parse.Cursor Parse.View
  Parse.WireSpec Parse.Repr Parse.StrictProofs Parse.Access Parse.LaxSlices Parse.LaxCursor Parse.LaxView
  Parse.LaxProofs Parse.LaxFacts Parse.LaxWire Parse.LaxWireProofs
  Parse.HdrModel Parse.HdrView Parse.HdrCut Parse.HdrProofs Parse.HdrProofs2 Parse.HdrProofs3
  Parse.HdrLaxModel Parse.HdrLaxView Parse.HdrLaxProofs Parse.HdrLaxCut Parse.HdrLaxCutProofs
  Parse.HdrLaxProofs2 Parse.HdrLaxProofs3 Parse.HdrSlots.
Import ListNotations.
Import LaxSlicedPacketCursor.

Local Open Scope N_scope.

Lemma raw_ok_inv base k rest sl h rest1 nh1 :
  Ipv6RawExtHeaderSlice.from_slice rest = Ok sl ->
  LaxIpv6Extensions.raw_ok rest sl = Ok (h, rest1, nh1) ->
  rest = at_off base k -> k <= s_len base ->
  wf_raw h /\ subU base k (s_len h) = Ok h /\ rdU h 0 = Ok nh1 /\
  rest1 = at_off base (k + s_len h) /\ k + s_len h <= s_len base.
Proof.
  unfold LaxIpv6Extensions.raw_ok. intros Esl H Hr Hk.
  binv H rest' Er. binv H nh Enh. binv H h' Eh. injection H as <- <- <-.
  apply raw_to_header_id in Eh. subst h'. unfold Ipv6RawExtHeaderSlice.next_header in Enh.
  destruct (AccessProofs.raw_inv _ _ Esl) as (b & _ & Hsl & _).
  pose proof (AccessProofs.raw_wf _ _ Esl) as (Wsl & _).
  destruct (step_geom base k rest sl rest' _ Hr Hk Hsl Er) as (G1 & G2 & G3 & G4).
  rewrite <- G2 in G3, G4. repeat split; auto.
Qed.

Ltac lcons_with H it K nh1 :=
  match type of H with
  | LaxIpv6Extensions.loop _ _ ?x1 _ _ = _ => apply (loop_cons _ _ x1 _ _ _ it K nh1)
  end.

Lemma lax_loop_slots fuel : forall base x rest nh k x' nh' r' st' L,
  LaxIpv6Extensions.loop fuel base x rest nh = Ok (x', nh', r', st') ->
  k <= s_len base -> rest = at_off base k ->
  holds x L -> (x_route x = None -> x_fdest x = None) ->
  loop_post base x L k nh x' nh' r'.
Proof.
  induction fuel as [|f IH]; intros base x rest nh k x' nh' r' st' L H Hk Hr Hh Hfd; [discriminate|].
  cbn [LaxIpv6Extensions.loop] in H.
  assert (Stop : forall stx, Ok (x, nh, rest, stx) = Ok (x', nh', r', st') -> loop_post base x L k nh x' nh' r').
  { intros stx E. injection E as <- <- <- _. subst rest. now apply loop_stop. }
  assert (LStop : forall e ly stx,
            (let* st := LaxIpv6Extensions.len_stop base rest e ly in Ok (x, nh, rest, Some st)) =
              Ok (x', nh', r', stx) -> loop_post base x L k nh x' nh' r').
  { intros e ly stx E. binv E st0 Est. injection E as <- <- <- _. subst rest. now apply loop_stop. }
  destruct (nh =? IPN_HOP_BY_HOP) eqn:E0; [now apply (Stop _ H)|].
  destruct (nh =? IPN_DEST_OPTIONS) eqn:E60.
  { apply N.eqb_eq in E60.
    destruct (x_route x) as [rt|] eqn:Ert.
    - destruct (x_fdest x) as [fd|] eqn:Efd; cbn [is_some] in H; [now apply (Stop _ H)|].
      destruct (Ipv6RawExtHeaderSlice.from_slice rest) as [sl|[l|ce]|b] eqn:Esl; try discriminate;
        [|now apply (LStop _ _ _ H)].
      binv H r Er. destruct r as ((h, rest1), nh1).
      destruct (raw_ok_inv base k rest sl h rest1 nh1 Esl Er Hr Hk) as (Wf & Hs & Hn & Hr1 & Hk1).
      lcons_with H (XDestinationOptions h) SFdest nh1; auto.
      + intros j. destruct j; cbn; congruence.
      + cbn. now rewrite Ert.
      + cbn. now rewrite Ert.
      + intros L1 HL1. cbn [ext_item_slice].
        apply (IH base _ rest1 nh1 (k + s_len h) x' nh' r' st' L1 H); auto.
        cbn. intros X; discriminate X.
    - destruct (x_dest x) as [d|] eqn:Ed; cbn [is_some] in H; [now apply (Stop _ H)|].
      destruct (Ipv6RawExtHeaderSlice.from_slice rest) as [sl|[l|ce]|b] eqn:Esl; try discriminate;
        [|now apply (LStop _ _ _ H)].
      binv H r Er. destruct r as ((h, rest1), nh1).
      destruct (raw_ok_inv base k rest sl h rest1 nh1 Esl Er Hr Hk) as (Wf & Hs & Hn & Hr1 & Hk1).
      lcons_with H (XDestinationOptions h) SDest nh1; auto.
      + intros j. destruct j; cbn; congruence.
      + cbn. now rewrite Ert.
      + cbn. now rewrite Ert.
      + intros L1 HL1. cbn [ext_item_slice].
        apply (IH base _ rest1 nh1 (k + s_len h) x' nh' r' st' L1 H); auto. }
  destruct (nh =? IPN_ROUTE) eqn:E43.
  { apply N.eqb_eq in E43.
    destruct (x_route x) as [rt|] eqn:Ert; cbn [is_some] in H; [now apply (Stop _ H)|].
    destruct (Ipv6RawExtHeaderSlice.from_slice rest) as [sl|[l|ce]|b] eqn:Esl; try discriminate;
      [|now apply (LStop _ _ _ H)].
    binv H r Er. destruct r as ((h, rest1), nh1).
    destruct (raw_ok_inv base k rest sl h rest1 nh1 Esl Er Hr Hk) as (Wf & Hs & Hn & Hr1 & Hk1).
    pose proof (Hfd eq_refl) as Fd.
    lcons_with H (XRouting h) SRoute nh1; auto.
    + intros j. destruct j; cbn; congruence.
    + intros L1 HL1. cbn [ext_item_slice].
      apply (IH base _ rest1 nh1 (k + s_len h) x' nh' r' st' L1 H); auto. }
  destruct (nh =? IPN_FRAG) eqn:E44.
  { apply N.eqb_eq in E44.
    destruct (x_frag x) as [fg|] eqn:Efg; cbn [is_some] in H; [now apply (Stop _ H)|].
    destruct (Ipv6FragmentHeaderSlice.from_slice rest) as [sl|[l|ce]|b] eqn:Esl; try discriminate;
      [|now apply (LStop _ _ _ H)].
    binv H rest1 Er. binv H nh1 Enh. unfold Ipv6FragmentHeaderSlice.next_header in Enh.
    destruct (frag_step_inv base k rest sl rest1 Esl Er Hr Hk) as (Wf & Hs & Hr1 & Hk1).
    lcons_with H (XFragment sl) SFrag nh1; auto.
    + intros j. destruct j; cbn; congruence.
    + intros L1 HL1. cbn [ext_item_slice].
      apply (IH base _ rest1 nh1 (k + s_len sl) x' nh' r' st' L1 H); auto. }
  destruct (nh =? IPN_AUTH) eqn:E51; [|now apply (Stop _ H)].
  apply N.eqb_eq in E51.
  destruct (x_auth x) as [au|] eqn:Eau; cbn [is_some] in H; [now apply (Stop _ H)|].
  destruct (IpAuthHeaderSlice.from_slice rest) as [sl|[l|ce]|b] eqn:Esl; try discriminate;
    [|now apply (LStop _ _ _ H)|now apply (Stop _ H)].
  binv H rest1 Er. binv H nh1 Enh. unfold IpAuthHeaderSlice.next_header in Enh.
  binv H h Eh. apply auth_to_header_id in Eh. subst h.
  destruct (auth_step_inv base k rest sl rest1 Esl Er Hr Hk) as (Wf & Hs & Hr1 & Hk1).
  lcons_with H (XAuthentication sl) SAuth nh1; auto.
  + intros j. destruct j; cbn; congruence.
  + intros L1 HL1. cbn [ext_item_slice].
    apply (IH base _ rest1 nh1 (k + s_len sl) x' nh' r' st' L1 H); auto.
Qed.

Theorem lax_from_slice_slots nh0 hp x nh' r st :
  LaxIpv6Extensions.from_slice_lax nh0 hp = Ok (x, nh', r, st) ->
  exists l k', slots_hold x l /\ chain hp 0 nh0 l k' nh' /\ k' <= s_len hp /\ r = at_off hp k'.
Proof.
  unfold LaxIpv6Extensions.from_slice_lax. intros H.
  destruct (IPN_HOP_BY_HOP =? nh0) eqn:Eh.
  - apply N.eqb_eq in Eh.
    destruct (Ipv6RawExtHeaderSlice.from_slice hp) as [sl|[l|ce]|b] eqn:Esl; try discriminate.
    + binv H r0 Er. destruct r0 as ((h, rest1), nh1).
      destruct (raw_ok_inv hp 0 hp sl h rest1 nh1 Esl Er (eq_sym (at_off_0 hp)) ltac:(lia))
        as (Wf & Hs & Hn & Hr1 & Hk1).
      rewrite N.add_0_l in Hr1, Hk1.
      assert (Hh : holds (mkExts6 (Some h) None None None None None) [(SHbh, h)]).
      { apply (holds_put exts6_empty _ [] SHbh h holds_empty eq_refl). intros j. destruct j; reflexivity. }
      destruct (lax_loop_slots _ hp _ rest1 nh1 (s_len h) x nh' r st _ H Hk1 Hr1 Hh ltac:(reflexivity))
        as (l1 & k' & H1 & H2 & H3 & H4).
      exists (XHopByHop h :: l1), k'. unfold slots_hold.
      cbn [keyed chain item_slot routed_after ext_item_slice item_kind].
      split; [exact H1|]. split; [|auto]. rewrite N.add_0_l.
      repeat split; auto. exists nh1. auto.
    + injection H as <- <- <- _. exists [], 0. unfold slots_hold. cbn [keyed chain].
      split; [exact holds_empty|]. rewrite at_off_0. repeat split; auto. lia.
  - destruct (lax_loop_slots _ hp _ hp nh0 0 x nh' r st [] H ltac:(lia) (eq_sym (at_off_0 hp)) holds_empty
                ltac:(reflexivity)) as (l1 & k' & H1 & H2 & H3 & H4).
    exists l1, k'. auto.
Qed.

Theorem lexts_slots nh0 hp x nh' r st xs nh'' r' st' : bytes_ok (snd hp) ->
  LaxIpv6Extensions.from_slice_lax nh0 hp = Ok (x, nh', r, st) ->
  LaxCut.exts_from_slice_lax true nh0 hp = Ok (xs, nh'', r', st') ->
  ext_rel6 nh0 x xs /\ s_off (x6_slice xs) = s_off hp.
Proof.
  intros Hok Hh Hs. pose proof (lexts_agree nh0 hp Hok) as A. rewrite Hh, Hs in A.
  destruct A as (-> & -> & _ & _ & _ & Win & _ & _).
  destruct (lax_from_slice_slots _ _ _ _ _ _ Hh) as (l & k' & S1 & S2 & S3 & S4).
  unfold LaxCut.exts_from_slice_lax in Hs. binv Hs st0 Est. destruct st0 as ((rest0, nh00), err0).
  binv Hs w Ew. destruct w as (((restf, nxf), frf), errf).
  binv Hs used Eu. apply subN_inv in Eu. destruct Eu as (Lr & ->).
  binv Hs sl Esl. destruct (s_len hp - s_len restf <=? s_len hp) eqn:Eus; [|discriminate]. injection Esl as <-.
  injection Hs as <- _ <- _. cbn [x6_slice x6_first] in *.
  subst restf.
  assert (Eused : s_len hp - s_len (at_off hp k') = k') by (rewrite at_off_len; lia).
  rewrite Eused in *.
  set (I := (fst hp, take k' (snd hp))) in *.
  assert (PI : pre k' I hp) by (apply pre_take; lia).
  pose proof (pre_len _ _ _ PI) as LI.
  assert (Hlen : k' = exts6_len x) by (unfold win_of in Win; rewrite LI in Win; now injection Win).
  split; [|reflexivity].
  pose proof (chain_pre k' I hp PI _ _ _ _ _ S2 ltac:(lia)) as C. rewrite <- LI in C.
  unfold ext_rel6. cbn [x6_slice]. exists l, nh'. split; [|split; [exact S1|split; [exact C|now rewrite LI]]].
  unfold Ipv6ExtIterA.items, Ipv6ExtIterA.into_iter. cbn [x6_slice x6_first]. rewrite <- (at_off_0 I) at 2.
  rewrite at_off_len.
  pose proof (chain_le _ _ _ _ _ _ C) as Ll.
  assert (Hfuel : (length l < S (length (snd I)))%nat).
  { rewrite s_len_length. unfold len in Ll. lia. }
  destruct (s_len hp - k' =? s_len hp) eqn:Ez; cbn [negb].
  - assert (Z : k' = 0) by lia. rewrite LI, Z in C.
    destruct (chain_nil_any _ _ _ _ _ IPN_UDP C) as (-> & C0).
    apply (collect_chain I [] 0 IPN_UDP IPN_UDP); auto; try lia. rewrite LI, Z. exact C0.
  - apply (collect_chain I l 0 nh0 nh'); auto. lia.
Qed.

Definition lnet6_rel (hd : slice) (x : exts6) (v : lax_ipv6_slice) : Prop :=
  lv6_header v = hd /\
  exists nh0, Ipv6HeaderSlice.next_header hd = Ok nh0 /\
    ext_rel6 nh0 x (lv6_exts v) /\ s_off (x6_slice (lv6_exts v)) = s_off hd + 40.

Definition lipslot_rel (h : res (ip_headers * lax_ip_payload * option stop_error))
  (r : res (lax_ip_slice * option stop_error)) : Prop :=
  match h, r with
  | Ok (ih, p, st), Ok (i, st') =>
      forall hd x, ih = IhV6 hd x -> exists v, i = LIpV6 v /\ lnet6_rel hd x v
  | _, _ => True
  end.

Lemma lax_v6_tail_slots header hp src inc :
  bytes_ok (snd hp) -> s_len header = 40 -> s_off hp = s_off header + 40 ->
  lipslot_rel
    (let* nh0 := Ipv6HeaderSlice.next_header header in
     let* x := LaxIpv6Extensions.from_slice_lax nh0 hp in
     let '(exts, next_header, rest, stop) := x in
     let stop' :=
       match stop with
       | Some (ELen l, ly) => Some (ELen (le_set_src (le_add_offset l 40) src), ly)
       | o => o
       end in
     let* fragmented := Ipv6Extensions.is_fragmenting_payload exts in
     Ok (IhV6 header exts, mkLaxIpp inc next_header fragmented src rest, stop'))
    (let* r := LaxCut.v6_finish true header hp src inc in
     let '(v, stop) := r in
     Ok (LIpV6 v, stop)).
Proof.
  intros Hok H40 Hoff. unfold LaxCut.v6_finish, Ipv6HeaderSlice.next_header.
  rdok header 6.
  destruct (LaxIpv6Extensions.from_slice_lax v hp) as [[[[x nh'] r] st]|e|b] eqn:Eh; cbn [bind]; try exact I.
  destruct (Ipv6Extensions.is_fragmenting_payload x) as [fr|e|b]; cbn [bind]; try exact I.
  destruct (LaxCut.exts_from_slice_lax true v hp) as [[[[xs nh''] r'] st']|e'|b'] eqn:Es; cbn [bind]; try exact I.
  destruct (lexts_slots v hp x nh' r st xs nh'' r' st' Hok Eh Es) as (R & Off).
  intros hd x0 X. injection X as <- <-. eexists. split; [reflexivity|].
  unfold lnet6_rel. cbn [lv6_header lv6_exts]. split; [reflexivity|]. exists v.
  unfold Ipv6HeaderSlice.next_header. split; [exact E|]. split; [exact R|]. now rewrite Off.
Qed.

Lemma lax_from_slice_v4 s b0 ih p st :
  rd (snd s) 0 = Some b0 -> N.shiftr b0 4 = 4 ->
  LaxIpHeaders.from_slice_lax s = Ok (ih, p, st) -> exists h a, ih = IhV4 h a.
Proof.
  unfold LaxIpHeaders.from_slice_lax, lerr. intros Eb V H.
  destruct (s_len s =? 0); [discriminate|]. rewrite Eb in H. cbn [bind] in H. rewrite V in H.
  change (4 =? 4) with true in H. cbv iota in H.
  destruct (s_len s <? 20); [discriminate|]. binv H b0' E0.
  destruct (N.land b0' 15 <? 5); [discriminate|].
  destruct (s_len s <? N.land b0' 15 * 4); [discriminate|].
  binv H header Ehd. binv H tlen Etl. binv H t Et. destruct t as ((src, rest), inc).
  binv H proto Ep. binv H x Ex. destruct x as (((auth, np), rest'), stop).
  binv H fr Efr. injection H as <- _ _. eauto.
Qed.

Lemma lax_ip_slots s : bytes_ok (snd s) ->
  lipslot_rel (LaxIpHeaders.from_slice_lax s) (LaxCut.ip_from_slice true s).
Proof.
  intros Hok.
  destruct (s_len s =? 0) eqn:E0.
  { unfold LaxIpHeaders.from_slice_lax. rewrite E0. exact I. }
  destruct (rd_lt_Some (snd s) 0) as (b0 & Eb); [unfold s_len in *; lia|].
  destruct (N.shiftr b0 4 =? 4) eqn:V4.
  { apply N.eqb_eq in V4.
    destruct (LaxIpHeaders.from_slice_lax s) as [[[ih p] st]|e|b] eqn:E; try exact I.
    destruct (lax_from_slice_v4 s b0 ih p st Eb V4 E) as (h & a & ->).
    destruct (LaxCut.ip_from_slice true s) as [[i st']|e'|b']; try exact I.
    intros hd x X. discriminate X. }
  unfold LaxIpHeaders.from_slice_lax, LaxCut.ip_from_slice. rewrite E0.
  unfold rdU. rewrite Eb. cbn [bind]. rewrite V4.
  destruct (N.shiftr b0 4 =? 6) eqn:V6; [|exact I].
  destruct (s_len s <? 40) eqn:E40; [exact I|].
  rewrite subU_eq by lia. cbn [bind].
  set (header := (fst s + 0, take 40 (drop 0 (snd s)))).
  assert (Hh : s_len header = 40) by (apply s_len_sub; lia).
  unfold Ipv6HeaderSlice.payload_length.
  destruct (rd16_ok header 4) as (pl & Epl); [lia|]. rewrite Epl. cbn [bind].
  assert (Hsub : forall k n, bytes_ok (snd (fst s + k, take n (drop k (snd s))))).
  { intros k n. now apply bytes_ok_window. }
  destruct ((0 =? pl) && (40 <? s_len s)) eqn:Ez.
  - rewrite subN_ok by lia. cbn [bind]. rewrite subU_eq by lia. cbn [bind].
    apply lax_v6_tail_slots; auto; unfold s_off, header; cbn [fst]; lia.
  - rewrite subN_ok by lia. cbn [bind].
    destruct (s_len s - 40 <? pl) eqn:El.
    + cbn [bind]. rewrite subU_eq by lia. cbn [bind].
      apply lax_v6_tail_slots; auto; unfold s_off, header; cbn [fst]; lia.
    + rewrite subU_eq by lia. cbn [bind].
      apply lax_v6_tail_slots; auto; unfold s_off, header; cbn [fst]; lia.
Qed.
