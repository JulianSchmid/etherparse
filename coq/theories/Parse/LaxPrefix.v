(* Parse/LaxPrefix.v -- pwire is the strict reference decoder wire with the decoded prefix handed
   back on a reject (pwire_sound).  Where it rejects behind the first header, the lax reference
   decoder keeps every layer in front of the fault and records the fault, or went on by a documented
   length fallback; for the strict and lax models: lax_prefix_packet.
   The extension walk of the network layer is compared through `wire_exts2` of Parse/LaxWire2.v.
   Names: `M_x` the lax reference function lwire_x only adds layers (the strict part of its
   argument is a `vprefix` of the strict part of its value); `b_x` clause (b) for x: where
   pwire_x rejects with prefix q and error e, lwire_x keeps q and records e (`lax_outcome`). *)
From EP Require Import Base.Bytes Parse.Types Parse.Cursor Parse.View Parse.WireSpec Parse.StrictProofs
  Parse.LaxSlices Parse.LaxCursor Parse.LaxView Parse.LaxProofs Parse.LaxFacts Parse.LaxWire
  Parse.LaxWire2 Parse.LaxSecTag Parse.LaxWireProofs Parse.LaxWireFacts.
From Coq Require Import ZArith Lia ZifyN ZifyBool.
Local Open Scope N_scope.

Lemma forget_pres_of p r : forget (pres_of p r) = r.
Proof. destruct r; reflexivity. Qed.

Lemma pwire_ipv4_tail_sound bs p pos hl lim' :
  forget (pwire_ipv4_tail bs p pos hl lim') = wire_ipv4_tail bs p pos hl lim'.
Proof.
  unfold pwire_ipv4_tail, wire_ipv4_tail, pwire_transport.
  destruct (B bs (pos + 9) =? 51); [|apply forget_pres_of].
  destruct (wire_ah bs CeAuthZeroPayloadLen LsIpv4HeaderTotalLen (pos + hl) lim'); apply forget_pres_of.
Qed.

Lemma pwire_ipv4_body_sound bs p src pos lim hl :
  forget (pwire_ipv4_body bs p src pos lim hl) = wire_ipv4_body bs p src pos lim hl.
Proof.
  unfold pwire_ipv4_body, wire_ipv4_body, cut.
  destruct (W bs (pos + 2) <? hl); [reflexivity|].
  destruct (lim - pos <? W bs (pos + 2)); [reflexivity|]. apply pwire_ipv4_tail_sound.
Qed.

Lemma pwire_ipv4_sound bs p src pos lim :
  forget (pwire_ipv4 bs p src pos lim) = wire_ipv4 bs p src pos lim.
Proof.
  unfold pwire_ipv4, wire_ipv4, cut, bad.
  destruct (lim - pos <? 20); [reflexivity|].
  destruct (negb (B bs pos / 16 =? 4)); [reflexivity|].
  destruct (B bs pos mod 16 <? 5); [reflexivity|].
  destruct (lim - pos <? B bs pos mod 16 * 4); [reflexivity|]. apply pwire_ipv4_body_sound.
Qed.

Lemma pwire_ipv6_tail_sound bs p esrc psrc pos lim' :
  forget (pwire_ipv6_tail bs p esrc psrc pos lim') = wire_ipv6_tail bs p esrc psrc pos lim'.
Proof.
  unfold pwire_ipv6_tail, wire_ipv6_tail, pwire_transport.
  destruct (wire_exts bs _ esrc (pos + 40) lim' (B bs (pos + 6))); apply forget_pres_of.
Qed.

Lemma pwire_ipv6_body_sound bs p src pos lim :
  forget (pwire_ipv6_body bs p src pos lim) = wire_ipv6_body bs p src pos lim.
Proof.
  unfold pwire_ipv6_body, wire_ipv6_body, cut.
  destruct ((W bs (pos + 4) =? 0) && (40 <? lim - pos)); [apply pwire_ipv6_tail_sound|].
  destruct (lim - pos <? 40 + W bs (pos + 4)); [reflexivity|]. apply pwire_ipv6_tail_sound.
Qed.

Lemma pwire_ipv6_sound bs p src pos lim :
  forget (pwire_ipv6 bs p src pos lim) = wire_ipv6 bs p src pos lim.
Proof.
  unfold pwire_ipv6, wire_ipv6, cut, bad.
  destruct (lim - pos <? 40); [reflexivity|].
  destruct (negb (B bs pos / 16 =? 6)); [reflexivity|]. apply pwire_ipv6_body_sound.
Qed.

Lemma pwire_ip_sound bs p src pos lim :
  forget (pwire_ip bs p src pos lim) = wire_ip bs p src pos lim.
Proof.
  unfold pwire_ip, wire_ip, cut, bad.
  destruct (lim - pos =? 0); [reflexivity|].
  destruct (B bs pos / 16 =? 4).
  { destruct (B bs pos mod 16 <? 5); [reflexivity|].
    destruct (lim - pos <? B bs pos mod 16 * 4); [reflexivity|]. apply pwire_ipv4_body_sound. }
  destruct (B bs pos / 16 =? 6); [|reflexivity].
  destruct (lim - pos <? 40); [reflexivity|]. apply pwire_ipv6_body_sound.
Qed.

Lemma pwire_net_sound bs p et src pos lim :
  forget (pwire_net bs p et src pos lim) = wire_net bs p et src pos lim.
Proof.
  unfold pwire_net, wire_net.
  destruct (et =? 2054); [apply forget_pres_of|].
  destruct (et =? 2048); [apply pwire_ipv4_sound|].
  destruct (et =? 34525); [apply pwire_ipv6_sound|reflexivity].
Qed.

Lemma pwire_ether_sound bs cap : forall p et src pos lim,
  forget (pwire_ether bs cap p et src pos lim) = wire_ether bs cap p et src pos lim.
Proof.
  induction cap as [|cap IH]; intros p et src pos lim.
  - cbn [pwire_ether wire_ether].
    destruct (is_vlan et); [reflexivity|]. destruct (et =? 35045); [reflexivity|]. apply pwire_net_sound.
  - destruct (N.eqb_spec et 35045) as [->|Ne].
    { rewrite pwire_ether_macsec, wire_ether_macsec. now apply sectag_strict_map. }
    apply N.eqb_neq in Ne. cbn [pwire_ether wire_ether]. rewrite Ne. unfold cut.
    destruct (is_vlan et); [|apply pwire_net_sound].
    destruct (lim - pos <? 4); [reflexivity|apply IH].
Qed.

Theorem pwire_sound bs et :
  forget (pwire_ethernet bs) = wire_ethernet bs /\
  forget (pwire_ether_type bs et) = wire_ether_type bs et /\
  forget (pwire_from_ip bs) = wire_from_ip bs.
Proof.
  split; [|split].
  - unfold pwire_ethernet, wire_ethernet, cut. destruct (n_bs bs <? 14); [reflexivity|apply pwire_ether_sound].
  - apply pwire_ether_sound.
  - apply pwire_ip_sound.
Qed.

Lemma vprefix_refl p : vprefix p p.
Proof. unfold vprefix. repeat split; auto. exists []. now rewrite app_nil_r. Qed.

Lemma vprefix_trans p q r : vprefix p q -> vprefix q r -> vprefix p r.
Proof.
  intros (A1 & (x & A2) & A3 & A4) (B1 & (y & B2) & B3 & B4). unfold vprefix.
  split; [congruence|]. split; [exists (x ++ y); rewrite B2, A2, app_assoc; reflexivity|].
  split.
  - destruct A3 as [A3|A3]; [now left|]. destruct B3 as [B3|B3]; [left; congruence|right; congruence].
  - destruct A4 as [A4|A4]; [now left|]. destruct B4 as [B4|B4]; [left; congruence|right; congruence].
Qed.

Lemma strictify_lstop p e : strictify (lstop p e) = strictify p.
Proof. reflexivity. Qed.
Lemma strictify_lstop_opt p e : strictify (lstop_opt p e) = strictify p.
Proof. destruct e; reflexivity. Qed.
Lemma strictify_lwith_net p n : strictify (lwith_net p n) = with_net (strictify p) (strictify_net n).
Proof. reflexivity. Qed.
Lemma strictify_lwith_tr p t : strictify (lwith_tr p t) = with_tr (strictify p) t.
Proof. reflexivity. Qed.
Lemma strictify_lwith_ext p x : strictify (lwith_ext p x) = with_ext (strictify p) (strictify_ext x).
Proof. unfold strictify, lwith_ext, with_ext. cbn. now rewrite map_app. Qed.

Lemma vprefix_with_net p n : v_net p = None -> vprefix p (with_net p n).
Proof. intros H. unfold vprefix, with_net. cbn. repeat split; auto. exists []. now rewrite app_nil_r. Qed.
Lemma vprefix_with_tr p t : v_transport p = None -> vprefix p (with_tr p t).
Proof. intros H. unfold vprefix, with_tr. cbn. repeat split; auto. exists []. now rewrite app_nil_r. Qed.
Lemma vprefix_with_ext p x : vprefix p (with_ext p x).
Proof. unfold vprefix, with_ext. cbn. repeat split; auto. now exists [x]. Qed.

Lemma strictify_net_none p : lv_net p = None -> v_net (strictify p) = None.
Proof. intros H. unfold strictify. cbn. now rewrite H. Qed.
Lemma strictify_tr p : v_transport (strictify p) = lv_transport p.
Proof. reflexivity. Qed.

Definition lax_outcome (e : slice_error) (q : lvpacket) : Prop :=
  (* a documented length fallback: lax went on with the data that is there *)
  fallback e \/
  (* recorded: same error record, layer tag fitting the error *)
  (exists e' ly, lv_stop q = Some (e', ly) /\ lax_same e e' /\ tag_ok e' ly) \/
  (* F11: a fault of the IP header, recorded as IP-header fault at the same offset *)
  (ip_hdr_class e /\
   exists e', lv_stop q = Some (e', LyIpHeader) /\ ip_hdr_class e' /\
              (forall o o', err_off e = Some o -> err_off e' = Some o' -> o = o')).

Lemma lax_same_refl e : lax_same e e.
Proof. destruct e; cbn; auto. repeat split; auto. Qed.

Lemma recorded_outcome q e ly : lv_stop q = Some (e, ly) -> tag_ok e ly -> lax_outcome e q.
Proof. intros H T. right. left. exists e, ly. split; [exact H|]. split; [apply lax_same_refl|exact T]. Qed.

Lemma pres_of_rej p r q e : pres_of p r = PRej q e -> q = p /\ r = VErr e.
Proof. destruct r; cbn; intros H; try discriminate. injection H as <- <-. auto. Qed.

(* one step of the two reference decoders side by side, the strict one started on the strict
   reading of lp: the lax result r keeps what lp held; where the strict decoder accepts, r reads
   as its result; a fault of the strict decoder is accounted for in r *)
Definition walk_agree (lp : lvpacket) (w : vres) (r : lvpacket) : Prop :=
  vprefix (strictify lp) (strictify r) /\
  match w with
  | VOk q => strictify r = q /\ lv_stop r = lv_stop lp
  | VErr e => lax_outcome e r
  | VBug _ => False
  end.

Lemma agree_ok lp q r :
  strictify r = q -> lv_stop r = lv_stop lp -> vprefix (strictify lp) (strictify r) ->
  walk_agree lp (VOk q) r.
Proof. intros E S V. split; [exact V|]. split; assumption. Qed.

Lemma agree_fallback lp e r :
  fallback e -> vprefix (strictify lp) (strictify r) -> walk_agree lp (VErr e) r.
Proof. intros F V. split; [exact V|]. now left. Qed.

Lemma agree_stop lp e e' tag :
  lax_same e e' -> tag_ok e' tag -> walk_agree lp (VErr e) (lstop lp (e', tag)).
Proof.
  intros S T. split; [apply vprefix_refl|].
  right. left. exists e', tag. split; [reflexivity|]. split; assumption.
Qed.

Lemma agree_cut lp req a src psrc ly pos tag :
  psrc = src \/ psrc = LsSlice \/ (ly = LyArp /\ psrc = LsArpAddrLengths) ->
  tag_ok (ELen (mkLenError req a psrc ly pos)) tag ->
  walk_agree lp (cut req a src ly pos) (lcut lp req a psrc ly pos tag).
Proof. intros Hsrc T. apply agree_stop; [|exact T]. cbn. repeat split; auto. Qed.

Lemma transport_agree bs lp ipn frag src psrc pos lim :
  lv_stop lp = None -> lv_transport lp = None -> (psrc = src \/ psrc = LsSlice) ->
  walk_agree lp (wire_transport bs (strictify lp) ipn frag src pos lim)
    (lwire_transport bs lp ipn frag psrc pos lim).
Proof.
  intros Hst Htr Hsrc. unfold wire_transport, lwire_transport, lhas_stop. rewrite Hst, orb_false_r.
  assert (Cut : forall req a ly tag, tag_ok (ELen (mkLenError req a psrc ly pos)) tag ->
            walk_agree lp (cut req a src ly pos) (lcut lp req a psrc ly pos tag)).
  { intros req a ly tag. apply agree_cut. tauto. }
  assert (Tr : forall t, vprefix (strictify lp) (strictify (lwith_tr lp t))).
  { intros t. rewrite strictify_lwith_tr. apply vprefix_with_tr. exact Htr. }
  assert (Acc : forall t, walk_agree lp (VOk (with_tr (strictify lp) t)) (lwith_tr lp t)).
  { intros t. apply agree_ok; [apply strictify_lwith_tr|reflexivity|apply Tr]. }
  assert (Same : walk_agree lp (VOk (strictify lp)) lp).
  { apply agree_ok; [reflexivity|reflexivity|apply vprefix_refl]. }
  destruct frag; [exact Same|].
  destruct (ipn =? 1).
  { unfold wire_icmp4, lwire_icmp4.
    destruct (lim - pos <? 8); [now apply Cut|].
    destruct ((B bs pos =? 13) && (B bs (pos + 1) =? 0) && negb (lim - pos =? 20)); [now apply Cut|].
    destruct ((B bs pos =? 14) && (B bs (pos + 1) =? 0) && negb (lim - pos =? 20)); [now apply Cut|].
    apply Acc. }
  destruct (ipn =? 17).
  { unfold wire_udp, lwire_udp.
    destruct (lim - pos <? 8); [now apply Cut|].
    (* a length field beyond the data or below the header size: lax hands out what is there *)
    destruct (lim - pos <? W bs (pos + 4)); cbn [orb].
    { apply agree_fallback; [cbn; auto|apply Tr]. }
    destruct (W bs (pos + 4) =? 0) eqn:E0.
    { assert ((W bs (pos + 4) <? 8) = true) as -> by lia. apply Acc. }
    destruct (W bs (pos + 4) <? 8); [|apply Acc].
    apply agree_fallback; [cbn; auto 6|apply Tr]. }
  destruct (ipn =? 6).
  { unfold wire_tcp, lwire_tcp, bad.
    destruct (lim - pos <? 20); [now apply Cut|].
    destruct (B bs (pos + 12) / 16 <? 5); [apply agree_stop; reflexivity|].
    destruct (lim - pos <? B bs (pos + 12) / 16 * 4); [now apply Cut|].
    apply Acc. }
  destruct (ipn =? 58); [|exact Same].
  unfold wire_icmp6, lwire_icmp6.
  destruct (lim - pos <? 8); [now apply Cut|].
  destruct (4294967295 <? lim - pos); [now apply Cut|].
  apply Acc.
Qed.

Lemma ltransport_stop_keeps bs p ipn frag psrc pos lim e :
  lv_stop p = Some e -> lwire_transport bs p ipn frag psrc pos lim = p.
Proof. intros H. unfold lwire_transport, lhas_stop. rewrite H. now rewrite orb_true_r. Qed.

Lemma M_transport bs p ipn frag psrc pos lim :
  lv_transport p = None ->
  vprefix (strictify p) (strictify (lwire_transport bs p ipn frag psrc pos lim)).
Proof.
  intros Ht. destruct (lv_stop p) as [e|] eqn:Hst.
  - rewrite (ltransport_stop_keeps _ _ _ _ _ _ _ e Hst). apply vprefix_refl.
  - apply (transport_agree bs p ipn frag psrc psrc pos lim Hst Ht). now left.
Qed.

Lemma b_transport bs p lp ipn frag src psrc pos lim q e :
  strictify lp = p -> lv_stop lp = None -> lv_transport lp = None ->
  (psrc = src \/ psrc = LsSlice) ->
  pwire_transport bs p ipn frag src pos lim = PRej q e ->
  vprefix q (strictify (lwire_transport bs lp ipn frag psrc pos lim)) /\
  lax_outcome e (lwire_transport bs lp ipn frag psrc pos lim).
Proof.
  intros <- Hst Htr Hsrc H. apply pres_of_rej in H. destruct H as (-> & H).
  destruct (transport_agree bs lp ipn frag src psrc pos lim Hst Htr Hsrc) as (V & O).
  rewrite H in O. split; [exact V|exact O].
Qed.

Lemma arp_agree bs lp src pos lim :
  lv_net lp = None ->
  walk_agree lp (wire_arp bs (strictify lp) src pos lim) (lwire_arp bs lp src pos lim).
Proof.
  intros Hn. unfold wire_arp, lwire_arp.
  destruct (lim - pos <? 8); [apply agree_cut; [now left|reflexivity]|].
  destruct (lim - pos <? 8 + B bs (pos + 4) * 2 + B bs (pos + 5) * 2).
  { apply agree_cut; [right; right; now split|reflexivity]. }
  apply agree_ok; [apply strictify_lwith_net|reflexivity|].
  rewrite strictify_lwith_net. apply vprefix_with_net. now apply strictify_net_none.
Qed.

Lemma M_arp bs p csrc pos lim :
  lv_net p = None -> vprefix (strictify p) (strictify (lwire_arp bs p csrc pos lim)).
Proof. intros Hn. apply (arp_agree bs p csrc pos lim Hn). Qed.

Lemma b_arp bs p lp src pos lim q e :
  strictify lp = p -> lv_net lp = None ->
  pres_of p (wire_arp bs p src pos lim) = PRej q e ->
  vprefix q (strictify (lwire_arp bs lp src pos lim)) /\ lax_outcome e (lwire_arp bs lp src pos lim).
Proof.
  intros <- Hn H. apply pres_of_rej in H. destruct H as (-> & H).
  destruct (arp_agree bs lp src pos lim Hn) as (V & O). rewrite H in O. split; [exact V|exact O].
Qed.

Lemma M_ip_body bs p csrc pos lim :
  lv_net p = None -> lv_transport p = None ->
  vprefix (strictify p) (strictify (lwire_ip_body bs p csrc pos lim)).
Proof.
  intros Hn Ht. unfold lwire_ip_body.
  destruct (lwire_ip_parts bs csrc pos lim) as [[[net pl] st] lim'].
  eapply vprefix_trans; [|apply M_transport; destruct st; exact Ht].
  rewrite strictify_lstop_opt, strictify_lwith_net. apply vprefix_with_net. now apply strictify_net_none.
Qed.

Lemma M_ip bs p csrc pos lim :
  lv_net p = None -> lv_transport p = None ->
  vprefix (strictify p) (strictify (lwire_ip bs p csrc pos lim)).
Proof.
  intros Hn Ht. unfold lwire_ip. destruct (ip_hdr_fault bs csrc pos lim); [apply vprefix_refl|].
  now apply M_ip_body.
Qed.

Lemma M_ether bs cap : forall p et csrc pos lim,
  lv_net p = None -> lv_transport p = None ->
  vprefix (strictify p) (strictify (lwire_ether bs cap p et csrc pos lim)).
Proof.
  assert (Net : forall p et csrc pos lim, lv_net p = None -> lv_transport p = None ->
            vprefix (strictify p)
              (strictify (if et =? 2054 then lwire_arp bs p csrc pos lim
                          else if (et =? 2048) || (et =? 34525) then lwire_ip bs p csrc pos lim else p))).
  { intros p et csrc pos lim Hn Ht. destruct (et =? 2054); [now apply M_arp|].
    destruct ((et =? 2048) || (et =? 34525)); [now apply M_ip|apply vprefix_refl]. }
  induction cap as [|cap IH]; intros p et csrc pos lim Hn Ht.
  - cbn [lwire_ether].
    destruct (is_vlan et); [apply vprefix_refl|]. destruct (et =? 35045); [apply vprefix_refl|]. now apply Net.
  - destruct (is_vlan et) eqn:Ev.
    { rewrite lwire_ether_vlan by exact Ev. unfold lcut. destruct (lim - pos <? 4); [apply vprefix_refl|].
      eapply vprefix_trans; [|apply IH; assumption].
      rewrite strictify_lwith_ext. apply vprefix_with_ext. }
    destruct (et =? 35045) eqn:Em; [|rewrite lwire_ether_net by assumption; now apply Net].
    apply N.eqb_eq in Em. subst et. rewrite lwire_ether_macsec.
    destruct (sectag_dec bs pos lim) as [req|c|hl body unmod has_sl inc]; [apply vprefix_refl|apply vprefix_refl|].
    cbv zeta. destruct unmod.
    + eapply vprefix_trans; [|apply IH; assumption].
      rewrite strictify_lwith_ext. apply vprefix_with_ext.
    + rewrite strictify_lwith_ext. apply vprefix_with_ext.
Qed.

Lemma ah_dec_wire bs zero src pos lim :
  wire_ah bs zero src pos lim =
  match ah_dec bs zero src pos lim with
  | inl (l, next) => AhOk l next
  | inr e => AhErr (VErr e)
  end.
Proof.
  unfold wire_ah, ah_dec, cut, bad.
  destruct (lim - pos <? 12); [reflexivity|].
  destruct (B bs (pos + 1) =? 0); [reflexivity|].
  destruct (lim - pos <? (B bs (pos + 1) + 2) * 4); reflexivity.
Qed.

Lemma ah_dec_tag bs zero src pos lim e :
  zero = CeAuthZeroPayloadLen \/ zero = CeIpv6AuthZeroPayloadLen ->
  ah_dec bs zero src pos lim = inr e -> tag_ok e LyIpAuthHeader.
Proof.
  intros Hz. unfold ah_dec. destruct (lim - pos <? 12). { intros H. injection H as <-. reflexivity. }
  destruct (B bs (pos + 1) =? 0). { intros H. injection H as <-. destruct Hz as [->| ->]; reflexivity. }
  destruct (lim - pos <? (B bs (pos + 1) + 2) * 4); [|discriminate]. intros H. injection H as <-. reflexivity.
Qed.

Lemma chain2_forget bs src fuel : forall pos lim nh frag,
  forget_ch2 (wire_chain2 bs fuel src pos lim nh frag) = wire_chain bs fuel src pos lim nh frag.
Proof.
  induction fuel as [|f IH]; intros pos lim nh frag; cbn [wire_chain2 wire_chain]; [reflexivity|].
  destruct (nh =? 0); [reflexivity|].
  destruct ((nh =? 60) || (nh =? 43)).
  { destruct (lim - pos <? 8); [reflexivity|].
    destruct (lim - pos <? (B bs (pos + 1) + 1) * 8); [reflexivity|apply IH]. }
  destruct (nh =? 44).
  { destruct (lim - pos <? 8); [reflexivity|apply IH]. }
  destruct (nh =? 51); [|reflexivity].
  destruct (wire_ah bs CeIpv6AuthZeroPayloadLen src pos lim); [apply IH|reflexivity].
Qed.

Lemma exts2_forget bs src fuel pos lim nh :
  forget_ch2 (wire_exts2 bs fuel src pos lim nh) = wire_exts bs fuel src pos lim nh.
Proof.
  unfold wire_exts2, wire_exts. destruct (nh =? 0); [|apply chain2_forget].
  destruct (lim - pos <? 8); [reflexivity|].
  destruct (lim - pos <? (B bs (pos + 1) + 1) * 8); [reflexivity|apply chain2_forget].
Qed.

(* the extension chain walk of the strict reference decoder that reports where it stood
   (LaxWire2.v), against the chain walk of the lax reference decoder *)
Definition chain2_agree (w : chain_res2) (l : N * N * bool * option stop_error) : Prop :=
  match w with
  | Ch2Ok e next fr => l = (e, next, fr, None)
  | Ch2Err e nh fr tag r =>
      exists err, r = VErr err /\ l = (e, nh, fr, Some (err, tag)) /\ tag_ok err tag
  end.

(* the fuel S (lim - pos) always suffices: every continuing step consumes at least 8 bytes *)
Lemma chain2_lwire bs src fuel : forall pos lim nh frag,
  (N.to_nat (lim - pos) < fuel)%nat ->
  chain2_agree (wire_chain2 bs fuel src pos lim nh frag) (lwire_chain bs fuel src pos lim nh frag).
Proof.
  induction fuel as [|f IH]; intros pos lim nh frag Hf; [lia|].
  cbn [wire_chain2 lwire_chain]. unfold cut, bad.
  assert (Stop : forall (e : N) (err : slice_error) (tag : layer), tag_ok err tag ->
            exists err', VErr err = VErr err' /\
              (e, nh, frag, Some (err, tag)) = (e, nh, frag, Some (err', tag)) /\ tag_ok err' tag).
  { intros e err tag T. exists err. auto. }
  destruct (nh =? 0). { now apply Stop. }
  destruct ((nh =? 60) || (nh =? 43)).
  { assert (T : forall l, tag_ok (ELen (mkLenError l (lim - pos) src LyIpv6ExtHeader pos))
                            (if nh =? 60 then LyIpv6DestOptionsHeader else LyIpv6RouteHeader))
      by (intros l; cbn; destruct (nh =? 60); auto).
    destruct (lim - pos <? 8) eqn:E8. { apply Stop, T. }
    destruct (lim - pos <? (B bs (pos + 1) + 1) * 8) eqn:El. { apply Stop, T. }
    apply IH. lia. }
  destruct (nh =? 44).
  { destruct (lim - pos <? 8) eqn:E8. { now apply Stop. }
    apply IH. lia. }
  destruct (nh =? 51); [|reflexivity].
  rewrite ah_dec_wire.
  destruct (ah_dec bs CeIpv6AuthZeroPayloadLen src pos lim) as [[l next]|e] eqn:Ea.
  - apply ah_dec_inl in Ea. apply IH. lia.
  - apply Stop. apply (ah_dec_tag _ _ _ _ _ _ (or_intror eq_refl) Ea).
Qed.

Lemma exts2_lwire bs src fuel pos lim nh :
  (N.to_nat (lim - pos) < fuel)%nat ->
  chain2_agree (wire_exts2 bs fuel src pos lim nh) (lwire_exts bs fuel src pos lim nh).
Proof.
  intros Hf. unfold wire_exts2, lwire_exts, cut.
  destruct (nh =? 0); [|now apply chain2_lwire].
  destruct (lim - pos <? 8) eqn:E8. { cbn. eexists. split; [reflexivity|]. split; [reflexivity|]. cbn. auto. }
  destruct (lim - pos <? (B bs (pos + 1) + 1) * 8) eqn:El.
  { cbn. eexists. split; [reflexivity|]. split; [reflexivity|]. cbn. auto. }
  apply chain2_lwire. lia.
Qed.

Lemma ip_hdr_fault_whole bs : ip_hdr_fault bs LsSlice 0 (len bs) = ip_header_fault bs.
Proof. unfold ip_hdr_fault, ip_header_fault. rewrite N.sub_0_r. reflexivity. Qed.

Lemma ip_hdr_fault_some bs src pos lim e :
  ip_hdr_fault bs src pos lim = Some e ->
  ip_hdr_class e /\ forall o, err_off e = Some o -> o = pos.
Proof.
  assert (L : forall req a ly, ly = LyIpHeader \/ ly = LyIpv4Header \/ ly = LyIpv6Header ->
            Some (ELen (mkLenError req a src ly pos)) = Some e ->
            ip_hdr_class e /\ forall o, err_off e = Some o -> o = pos).
  { intros req a ly Hly H. injection H as <-. split; [exact Hly|]. intros o Ho. now injection Ho as <-. }
  assert (C : forall c, ip_hdr_class (EContent c) -> Some (EContent c) = Some e ->
            ip_hdr_class e /\ forall o, err_off e = Some o -> o = pos).
  { intros c Hc H. injection H as <-. split; [exact Hc|discriminate]. }
  unfold ip_hdr_fault.
  destruct (lim - pos =? 0); [apply L; auto|].
  destruct (B bs pos / 16 =? 4).
  { destruct (B bs pos mod 16 <? 5); [apply C; exact I|].
    destruct (lim - pos <? B bs pos mod 16 * 4); [apply L; auto|discriminate]. }
  destruct (B bs pos / 16 =? 6); [|apply C; exact I].
  destruct (lim - pos <? 40); [apply L; auto|discriminate].
Qed.

Lemma ip_hdr_fault_v4 bs src pos lim :
  B bs pos / 16 = 4 -> (B bs pos mod 16 <? 5) = false -> (lim - pos <? B bs pos mod 16 * 4) = false ->
  ip_hdr_fault bs src pos lim = None.
Proof.
  intros E4 Ei Eh. unfold ip_hdr_fault. assert ((lim - pos =? 0) = false) as -> by lia.
  now rewrite E4, Ei, Eh.
Qed.

Lemma ip_hdr_fault_v6 bs src pos lim :
  B bs pos / 16 = 6 -> (lim - pos <? 40) = false -> ip_hdr_fault bs src pos lim = None.
Proof.
  intros E6 E40. unfold ip_hdr_fault. assert ((lim - pos =? 0) = false) as -> by lia.
  now rewrite E6, E40.
Qed.

(* the header is decodable: version 4 with a complete header, or version 6 with 40 octets *)
Lemma ip_hdr_fault_none bs src pos lim :
  ip_hdr_fault bs src pos lim = None ->
  (B bs pos / 16 = 4 /\ (B bs pos mod 16 <? 5) = false /\ (lim - pos <? B bs pos mod 16 * 4) = false) \/
  (B bs pos / 16 = 6 /\ (lim - pos <? 40) = false).
Proof.
  unfold ip_hdr_fault. destruct (lim - pos =? 0); [discriminate|].
  destruct (B bs pos / 16 =? 4) eqn:E4.
  - destruct (B bs pos mod 16 <? 5); [discriminate|].
    destruct (lim - pos <? B bs pos mod 16 * 4); [discriminate|]. intros _. left. repeat split. lia.
  - destruct (B bs pos / 16 =? 6) eqn:E6; [|discriminate].
    destruct (lim - pos <? 40); [discriminate|]. intros _. right. split; [lia|reflexivity].
Qed.

Section IpBody.
  Variables (bs : bytes) (p : vpacket) (lp : lvpacket) (src : len_source) (pos lim : N).
  Hypothesis Hs : strictify lp = p.
  Hypothesis Hst : lv_stop lp = None.
  Hypothesis Hn : lv_net lp = None.
  Hypothesis Htr : lv_transport lp = None.

  Let goal (q : vpacket) (e : slice_error) (r : lvpacket) : Prop :=
    vprefix q (strictify r) /\ lax_outcome e r.

  (* the transport layer decoded from the parts of a network layer, as in lwire_ip_body *)
  Let behind (pp : ip_parts) : lvpacket :=
    let '(net, pl, st, l') := pp in
    lwire_transport bs (lstop_opt (lwith_net lp net) st)
      (lvip_number pl) (lvip_frag pl) (lvip_src pl) (fst (lvip_win pl)) l'.

  (* the network layer is decoded: the verdict is that of the transport decoders *)
  Lemma behind_transport net pl l' esrc q e :
    (lvip_src pl = esrc \/ lvip_src pl = LsSlice) ->
    pwire_transport bs (with_net p (strictify_net net)) (lvip_number pl) (lvip_frag pl) esrc
      (fst (lvip_win pl)) l' = PRej q e ->
    goal q e (behind (net, pl, None, l')).
  Proof.
    intros Hps H.
    apply (b_transport bs _ (lwith_net lp net) _ _ _ _ _ _ _ _
             (f_equal (fun x => with_net x (strictify_net net)) Hs) Hst Htr Hps H).
  Qed.

  (* a header behind the network layer's own is broken: lax keeps the network layer and stops *)
  Lemma behind_stop net pl l' e ly : tag_ok e ly -> goal p e (behind (net, pl, Some (e, ly), l')).
  Proof.
    intros T. unfold behind. cbn [lstop_opt].
    rewrite (ltransport_stop_keeps _ _ _ _ _ _ _ (e, ly)) by reflexivity.
    split.
    - rewrite strictify_lstop, strictify_lwith_net, Hs. apply vprefix_with_net.
      rewrite <- Hs. now apply strictify_net_none.
    - apply (recorded_outcome _ _ ly); [reflexivity|exact T].
  Qed.

  (* a documented length fallback of the IP length field *)
  Lemma behind_fallback e : fallback e -> goal p e (lwire_ip_body bs lp src pos lim).
  Proof. intros F. split; [rewrite <- Hs; now apply M_ip_body|now left]. Qed.

  (* IPv4 behind the length checks; the payload ends at lim' *)
  Lemma b_ipv4_tail hl lim' q e :
    pwire_ipv4_tail bs p pos hl lim' = PRej q e ->
    goal q e (behind (lwire_ipv4_parts bs src pos hl lim' LsIpv4HeaderTotalLen false)).
  Proof.
    unfold pwire_ipv4_tail, lwire_ipv4_parts.
    change (pick_src LsIpv4HeaderTotalLen src) with LsIpv4HeaderTotalLen.
    destruct (B bs (pos + 9) =? 51).
    - rewrite ah_dec_wire.
      destruct (ah_dec bs CeAuthZeroPayloadLen LsIpv4HeaderTotalLen (pos + hl) lim') as [[ahl next]|e0] eqn:Ea.
      + intros H. apply (behind_transport _ _ _ LsIpv4HeaderTotalLen); [now left|exact H].
      + intros H. apply pres_of_rej in H. destruct H as (-> & H). injection H as <-.
        apply behind_stop. apply (ah_dec_tag _ _ _ _ _ _ (or_introl eq_refl) Ea).
    - intros H. apply (behind_transport _ _ _ LsIpv4HeaderTotalLen); [now left|exact H].
  Qed.

  (* IPv6 behind the length checks *)
  Lemma b_ipv6_tail esrc psrc lim' q e :
    pick_src psrc src = esrc -> (psrc = esrc \/ psrc = LsSlice) ->
    pwire_ipv6_tail bs p esrc psrc pos lim' = PRej q e ->
    goal q e (behind (lwire_ipv6_parts bs src pos lim' psrc false)).
  Proof.
    intros Hpick Hps. unfold pwire_ipv6_tail, lwire_ipv6_parts. rewrite Hpick.
    pose proof (exts2_lwire bs esrc (S (N.to_nat (lim' - (pos + 40)))) (pos + 40) lim' (B bs (pos + 6))
                  ltac:(lia)) as X.
    rewrite <- exts2_forget.
    destruct (wire_exts2 bs _ esrc (pos + 40) lim' (B bs (pos + 6))) as [e1 next fr|e1 nh fr tag r];
      cbn [forget_ch2].
    - cbn in X. rewrite X. intros H. apply (behind_transport _ _ _ esrc); [exact Hps|exact H].
    - intros H. apply pres_of_rej in H. destruct H as (-> & ->). cbn in X.
      destruct X as (err & Er & -> & T). injection Er as <-. apply behind_stop. exact T.
  Qed.

  Lemma b_ipv4_body q e :
    B bs pos / 16 = 4 ->
    pwire_ipv4_body bs p src pos lim (B bs pos mod 16 * 4) = PRej q e ->
    goal q e (lwire_ip_body bs lp src pos lim).
  Proof.
    intros H4. unfold pwire_ipv4_body.
    destruct (W bs (pos + 2) <? B bs pos mod 16 * 4) eqn:E1.
    { intros H. injection H as <- <-. apply behind_fallback. cbn. auto. }
    destruct (lim - pos <? W bs (pos + 2)) eqn:E2.
    { intros H. injection H as <- <-. apply behind_fallback. cbn. auto. }
    intros H. unfold lwire_ip_body, lwire_ip_parts. rewrite H4, E1, E2.
    exact (b_ipv4_tail _ _ _ _ H).
  Qed.

  Lemma b_ipv6_body q e :
    B bs pos / 16 = 6 ->
    pwire_ipv6_body bs p src pos lim = PRej q e ->
    goal q e (lwire_ip_body bs lp src pos lim).
  Proof.
    intros H6. unfold pwire_ipv6_body.
    destruct ((W bs (pos + 4) =? 0) && (40 <? lim - pos)) eqn:E1.
    { intros H. unfold lwire_ip_body, lwire_ip_parts. rewrite H6, E1.
      apply (b_ipv6_tail src LsSlice); [reflexivity|now right|exact H]. }
    destruct (lim - pos <? 40 + W bs (pos + 4)) eqn:E2.
    { intros H. injection H as <- <-. apply behind_fallback. cbn. auto. }
    intros H. unfold lwire_ip_body, lwire_ip_parts. rewrite H6, E1, E2.
    apply (b_ipv6_tail LsIpv6HeaderPayloadLen LsIpv6HeaderPayloadLen); [reflexivity|now left|exact H].
  Qed.

  (* a fault of the IP header itself, recorded by lax as IP-header fault *)
  Lemma goal_ip_group e e' :
    ip_hdr_fault bs src pos lim = Some e' -> ip_hdr_class e ->
    (forall o, err_off e = Some o -> o = pos) ->
    goal p e (lwire_ip bs lp src pos lim).
  Proof.
    intros HF C Ho. unfold lwire_ip. rewrite HF. split.
    - rewrite strictify_lstop, Hs. apply vprefix_refl.
    - destruct (ip_hdr_fault_some _ _ _ _ _ HF) as (C' & Ho').
      right. right. split; [exact C|]. exists e'. split; [reflexivity|]. split; [exact C'|].
      intros o o' H1 H2. rewrite (Ho o H1), (Ho' o' H2). reflexivity.
  Qed.

  (* a reject by a check of the IP header itself *)
  Lemma rej_hdr_len req a ly q e :
    ly = LyIpHeader \/ ly = LyIpv4Header \/ ly = LyIpv6Header ->
    PRej p (ELen (mkLenError req a src ly pos)) = PRej q e ->
    q = p /\ ip_hdr_class e /\ (forall o, err_off e = Some o -> o = pos).
  Proof.
    intros Hly H. injection H as <- <-. split; [reflexivity|]. split; [exact Hly|].
    intros o Ho. now injection Ho as <-.
  Qed.

  Lemma rej_hdr_content c q e :
    ip_hdr_class (EContent c) -> PRej p (EContent c) = PRej q e ->
    q = p /\ ip_hdr_class e /\ (forall o, err_off e = Some o -> o = pos).
  Proof. intros Hc H. injection H as <- <-. split; [reflexivity|]. split; [exact Hc|discriminate]. Qed.

  (* reached through the IPv4 ether type *)
  Lemma b_ipv4 q e :
    pwire_ipv4 bs p src pos lim = PRej q e -> ~ F10_class bs e ->
    goal q e (lwire_ip bs lp src pos lim).
  Proof.
    unfold pwire_ipv4. intros H NF.
    destruct (ip_hdr_fault bs src pos lim) as [e'|] eqn:HF.
    - (* lax sees a broken IP header: then strict's verdict is an IP-header fault too *)
      assert (q = p /\ ip_hdr_class e /\ (forall o, err_off e = Some o -> o = pos)) as (-> & C & Ho).
      { revert H. destruct (lim - pos <? 20) eqn:E20. { apply rej_hdr_len. auto. }
        destruct (B bs pos / 16 =? 4) eqn:E4; cbn [negb]; [|apply rej_hdr_content; exact I].
        destruct (B bs pos mod 16 <? 5) eqn:Ei. { apply rej_hdr_content. exact I. }
        destruct (lim - pos <? B bs pos mod 16 * 4) eqn:Eh. { apply rej_hdr_len. auto. }
        rewrite ip_hdr_fault_v4 in HF by (assumption || lia). discriminate. }
      now apply (goal_ip_group e e').
    - (* lax decodes the header *)
      unfold lwire_ip. rewrite HF. revert H.
      destruct (ip_hdr_fault_none _ _ _ _ HF) as [(E4 & Ei & Eh)|(E6 & E40)].
      + assert ((lim - pos <? 20) = false) as -> by lia.
        rewrite E4, Ei, Eh. apply b_ipv4_body. exact E4.
      + assert ((lim - pos <? 20) = false) as -> by lia. rewrite E6.
        intros H. injection H as <- <-. exfalso. apply NF. left. reflexivity.
  Qed.

  (* reached through the IPv6 ether type *)
  Lemma b_ipv6 q e :
    pwire_ipv6 bs p src pos lim = PRej q e -> ~ F10_class bs e ->
    goal q e (lwire_ip bs lp src pos lim).
  Proof.
    unfold pwire_ipv6. intros H NF.
    destruct (ip_hdr_fault bs src pos lim) as [e'|] eqn:HF.
    - assert (q = p /\ ip_hdr_class e /\ (forall o, err_off e = Some o -> o = pos)) as (-> & C & Ho).
      { revert H. destruct (lim - pos <? 40) eqn:E40. { apply rej_hdr_len. auto. }
        destruct (negb (B bs pos / 16 =? 6)) eqn:E6. { apply rej_hdr_content. exact I. }
        rewrite ip_hdr_fault_v6 in HF by (assumption || lia). discriminate. }
      now apply (goal_ip_group e e').
    - unfold lwire_ip. rewrite HF. revert H.
      destruct (ip_hdr_fault_none _ _ _ _ HF) as [(E4 & Ei & Eh)|(E6 & E40)].
      + destruct (lim - pos <? 40) eqn:E40.
        { intros H. injection H as <- <-. exfalso. apply NF. right. right.
          eexists. split; [reflexivity|]. cbn. split; [reflexivity|exact E4]. }
        rewrite E4. intros H. injection H as <- <-. exfalso. apply NF. right. left. reflexivity.
      + rewrite E40, E6. apply b_ipv6_body. exact E6.
  Qed.

  (* starting at "an IP header" behind a decodable header (from_ip) *)
  Lemma b_ip q e :
    ip_hdr_fault bs src pos lim = None ->
    pwire_ip bs p src pos lim = PRej q e ->
    goal q e (lwire_ip_body bs lp src pos lim).
  Proof.
    intros HF. unfold pwire_ip.
    destruct (ip_hdr_fault_none _ _ _ _ HF) as [(E4 & Ei & Eh)|(E6 & E40)].
    - assert ((lim - pos =? 0) = false) as -> by lia.
      rewrite E4, Ei, Eh. apply b_ipv4_body. exact E4.
    - assert ((lim - pos =? 0) = false) as -> by lia.
      rewrite E6, E40. apply b_ipv6_body. exact E6.
  Qed.
End IpBody.

Lemma b_net bs p lp et src pos lim q e :
  strictify lp = p -> lv_stop lp = None -> lv_net lp = None -> lv_transport lp = None ->
  pwire_net bs p et src pos lim = PRej q e -> ~ F10_class bs e ->
  let r := (if et =? 2054 then lwire_arp bs lp src pos lim
            else if (et =? 2048) || (et =? 34525) then lwire_ip bs lp src pos lim else lp) in
  vprefix q (strictify r) /\ lax_outcome e r.
Proof.
  intros Hs Hst Hn Htr H NF. revert H. unfold pwire_net. cbv zeta.
  destruct (et =? 2054); [now apply b_arp|].
  destruct (et =? 2048); [cbn [orb]; intros H; now apply (b_ipv4 bs p lp src pos lim)|].
  destruct (et =? 34525); [cbn [orb]; intros H; now apply (b_ipv6 bs p lp src pos lim)|].
  discriminate.
Qed.

Lemma sectag_bad_tag bs pos lim c : sectag_dec bs pos lim = StBad c -> tag_ok (EContent c) LyMacsecHeader.
Proof. intros H. destruct (sectag_bad _ _ _ _ H) as [-> | ->]; reflexivity. Qed.

Lemma pick_src_short (has_sl : bool) src :
  pick_src (if has_sl then LsMacsecShortLength else LsSlice) src = if has_sl then LsMacsecShortLength else src.
Proof. destruct has_sl; reflexivity. Qed.

Lemma b_ether bs cap : forall p lp et src pos lim q e,
  strictify lp = p -> lv_stop lp = None -> lv_net lp = None -> lv_transport lp = None ->
  pwire_ether bs cap p et src pos lim = PRej q e -> ~ F10_class bs e ->
  vprefix q (strictify (lwire_ether bs cap lp et src pos lim)) /\
  lax_outcome e (lwire_ether bs cap lp et src pos lim).
Proof.
  induction cap as [|cap IH]; intros p lp et src pos lim q e Hs Hst Hn Htr H NF; revert H.
  - cbn [pwire_ether lwire_ether].
    destruct (is_vlan et); [discriminate|]. destruct (et =? 35045); [discriminate|].
    intros H. now apply (b_net bs p lp et src pos lim).
  - assert (Rec : forall e0 tag, lax_same e e0 -> tag_ok e0 tag ->
              vprefix p (strictify (lstop lp (e0, tag))) /\ lax_outcome e (lstop lp (e0, tag))).
    { intros e0 tag S T. destruct (agree_stop lp e e0 tag S T) as (V & O).
      split; [rewrite <- Hs; exact V|exact O]. }
    destruct (is_vlan et) eqn:Ev.
    { cbn [pwire_ether lwire_ether]. rewrite Ev. unfold lcut. destruct (lim - pos <? 4).
      { intros H. injection H as <- <-. apply Rec; [|reflexivity]. cbn. repeat split; auto. }
      intros H. apply (IH (with_ext p (VVlan (pos, lim - pos))) (lwith_ext lp (LVVlan (pos, lim - pos)))
                         _ src _ _ q e); auto.
      rewrite strictify_lwith_ext, Hs. reflexivity. }
    destruct (et =? 35045) eqn:Em.
    2:{ cbn [pwire_ether lwire_ether]. rewrite Ev, Em. intros H. now apply (b_net bs p lp et src pos lim). }
    apply N.eqb_eq in Em. subst et. rewrite pwire_ether_macsec, lwire_ether_macsec. unfold sectag_strict, lcut.
    destruct (sectag_dec bs pos lim) as [req|c|hl body unmod has_sl inc] eqn:Ed.
    { intros H. injection H as <- <-. apply Rec; [|reflexivity]. cbn. repeat split; auto. }
    { intros H. injection H as <- <-. apply Rec; [reflexivity|]. exact (sectag_bad_tag _ _ _ _ Ed). }
    cbv zeta. destruct inc.
    { (* the short length promises more than is there: lax falls back to the slice end *)
      intros H. injection H as <- <-. split; [|left; cbn; auto].
      destruct unmod.
      - eapply vprefix_trans; [|apply M_ether; assumption].
        rewrite strictify_lwith_ext, Hs. apply vprefix_with_ext.
      - rewrite strictify_lwith_ext, Hs. apply vprefix_with_ext. }
    rewrite andb_true_r, pick_src_short.
    destruct unmod; [|discriminate].
    intros H. eapply IH; [|exact Hst|exact Hn|exact Htr|exact H|exact NF].
    rewrite strictify_lwith_ext, Hs. reflexivity.
Qed.

(* strict = the strict model's verdict, pw = the instrumented strict reference decoder, lax = the lax model *)
Definition prefix_ok (bs : bytes) (strict : res sliced_packet) (pw : pres) (lax : res lax_sliced_packet)
  : Prop :=
  forall e, strict = Err e ->
  exists q e_ref r',
    pw = PRej q e_ref /\              (* q = the layers in front of the fault, e_ref = the fault *)
    res_rel (VErr e) (VErr e_ref) /\  (* the strict model reports that fault (C03/C07 relation) *)
    lax = Ok r' /\
    (~ F10_class bs e_ref ->
     vprefix q (strictify (lview r')) /\ lax_outcome e_ref (lview r')).

Lemma strict_err_pwire e w pw :
  res_rel (VErr e) w -> forget pw = w ->
  exists q e_ref, pw = PRej q e_ref /\ res_rel (VErr e) (VErr e_ref).
Proof.
  intros RR F. destruct pw as [pa|q e_ref|s]; cbn [forget] in F; subst w.
  - destruct e; contradiction.
  - eauto.
  - destruct e; contradiction.
Qed.

Theorem lax_prefix_packet bs et :
  bytes_ok bs ->
  (14 <= len bs ->
   prefix_ok bs (SlicedPacket.from_ethernet bs) (pwire_ethernet bs) (LaxSlicedPacket.from_ethernet bs)) /\
  prefix_ok bs (SlicedPacket.from_ether_type et bs) (pwire_ether_type bs et)
    (LaxSlicedPacket.from_ether_type et bs) /\
  (ip_header_fault bs = None ->
   prefix_ok bs (SlicedPacket.from_ip bs) (pwire_from_ip bs) (LaxSlicedPacket.from_ip bs)).
Proof.
  intros Hok. destruct (pwire_sound bs et) as (S1 & S2 & S3). split; [|split].
  - intros H14 e E.
    pose proof (from_ethernet_rel bs Hok) as RR. rewrite E in RR. cbn [vres_of] in RR.
    destruct (strict_err_pwire e _ _ RR S1) as (q & e_ref & PW & RE).
    destruct (lax_from_ethernet_ok bs Hok H14) as (r' & -> & Q).
    assert (E14 : (len bs <? 14) = false) by lia.
    exists q, e_ref, r'. repeat (split; [assumption || reflexivity|]).
    intros NF. rewrite Q. unfold pwire_ethernet, n_bs in PW. rewrite E14 in PW.
    eapply b_ether; [| | | |exact PW|exact NF]; reflexivity.
  - intros e E.
    pose proof (from_ether_type_rel bs et Hok) as RR. rewrite E in RR. cbn [vres_of] in RR.
    destruct (strict_err_pwire e _ _ RR S2) as (q & e_ref & PW & RE).
    destruct (lax_from_ether_type_ok bs et Hok) as (r' & -> & Q).
    exists q, e_ref, r'. repeat (split; [assumption || reflexivity|]).
    intros NF. rewrite Q. unfold pwire_ether_type, n_bs in PW.
    eapply b_ether; [| | | |exact PW|exact NF]; reflexivity.
  - intros HF e E. rewrite <- ip_hdr_fault_whole in HF.
    pose proof (from_ip_rel bs Hok) as RR. rewrite E in RR. cbn [vres_of] in RR.
    destruct (strict_err_pwire e _ _ RR S3) as (q & e_ref & PW & RE).
    destruct (lax_from_ip_ok bs Hok HF) as (r' & -> & Q).
    exists q, e_ref, r'. repeat (split; [assumption || reflexivity|]).
    intros _. rewrite Q. unfold pwire_from_ip, n_bs in PW.
    eapply (b_ip bs empty_packet lempty_packet LsSlice 0 (len bs)); [| | | |exact HF|exact PW]; reflexivity.
Qed.
