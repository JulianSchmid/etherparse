(* Parse/ProvFacts.v -- what provenance (`in_buf`, `link_prov`, `ext_prov` of
   Parse/AccessProofs.v) gives the packet-level accessors: the arithmetic reading of a
   window of the input, and the payload windows of the link layer slices.  Used for strict
   results (Parse/PacketAccessProofs.v), lax results (Parse/LaxAccessPacket.v), the header
   values (Parse/HdrVal.v) and the stored iterators (Parse/StoredIter.v). *)
From EP Require Import Base.Bytes Parse.Types Parse.Cursor Parse.Repr Parse.Access Parse.AccessProofs.
From Coq Require Import ZArith Lia List.
Import ListNotations.

Local Open Scope N_scope.

Lemma in_buf_window bs w :
  in_buf bs w -> s_off w + s_len w <= len bs /\ snd w = take (s_len w) (drop (s_off w) bs).
Proof.
  intros I. split; [now apply in_buf_bounds|].
  destruct I as (pos & lim & R). rewrite (repr_off _ _ _ _ R), (repr_len _ _ _ _ R).
  destruct R as (-> & _). reflexivity.
Qed.

(* `self.link_exts.last()`, modelled as the head of the reversed list *)
Lemma rev_head_in {A} (l : list A) x r : rev l = x :: r -> In x l.
Proof. intros E. apply in_rev. rewrite E. now left. Qed.

Section Payloads.
  Variable bs : bytes.

  Lemma vlan_payload_prov s : ext_prov bs (LeVlan s) ->
    exists et w, SingleVlanA.ether_type s = Ok et /\ SingleVlanA.payload_slice s = Ok w /\ in_buf bs w.
  Proof.
    intros (src & I & E). apply vlan_wf in E. destruct E as (-> & W).
    pose proof (vlan_windows_ok _ W) as F. unfold SingleVlanA.windows in F.
    inversion F as [|? ? _ F2]; subst. inversion F2 as [|? ? (w & Ew & Sw) _]; subst.
    unfold wf_vlan in W. destruct (rd16_ok src 2) as (et & Eet); [lia|].
    exists et, w. split; [exact Eet|]. split; [exact Ew|exact (sub_of_in_buf bs _ _ I Sw)].
  Qed.

  Lemma eth2_payload_prov s : link_prov bs (LkEthernet2 s) ->
    exists et w, Ethernet2A.ether_type (mkEth2 0 s) = Ok et /\
                 Ethernet2A.payload_slice (mkEth2 0 s) = Ok w /\ in_buf bs w.
  Proof.
    intros (src & I & E). apply eth2_plain_wf in E. destruct E as (-> & W).
    pose proof (eth2_windows_ok _ W) as F. unfold Ethernet2A.windows in F. cbn [e2_slice] in F.
    inversion F as [|? ? _ F2]; subst. inversion F2 as [|? ? (w & Ew & Sw) _]; subst.
    destruct W as (_ & L). cbn [e2_slice e2_fcs_len] in L.
    destruct (rd16_ok src 12) as (et & Eet); [lia|].
    exists et, w. split; [exact Eet|]. split; [exact Ew|exact (sub_of_in_buf bs _ _ I Sw)].
  Qed.

  Lemma sll_payload_prov h w : link_prov bs (LkLinuxSll h w) ->
    exists v pw, LinuxSllHeaderA.protocol_type h = Ok v /\ LinuxSllA.payload_slice (h, w) = Ok pw /\
                 in_buf bs pw.
  Proof.
    intros (src & I & E). apply sll_wf in E. destruct E as (W & Ew & Sh). cbn [fst snd] in *. subst w.
    pose proof (sll_windows_ok (h, src) W) as F. unfold LinuxSllA.windows in F.
    inversion F as [|? ? (pw & Epw & Spw) _]; subst. cbn [snd] in Spw.
    destruct W as ((L & pt & hw & pr & v & E0 & Ept & E2 & E14 & Ev) & L16). cbn [fst snd] in *.
    exists v, pw. split; [|split; [exact Epw|exact (sub_of_in_buf bs _ _ I Spw)]].
    unfold LinuxSllHeaderA.protocol_type, LinuxSllHeaderA.arp_hardware_type.
    rewrite E2. cbn [bind]. rewrite E14. cbn [bind]. now rewrite Ev.
  Qed.
End Payloads.
