(* Parse/HdrProofs3.v -- assembly of the per-layer agreement lemmas of
   HdrProofs.v / HdrProofs2.v over whole packets: the VLAN / MACsec link
   extension loop (induction on the remaining capacity of the ArrayVec, as in
   StrictProofs.ether_rel), ARP, the IpHeaders::from_slice dispatch of the bare
   IP entry point and the three entry points of PacketHeaders. *)
From Coq Require Import ZArith Lia ZifyN ZifyBool.
From EP Require Import Base.Bytes Parse.Types Parse.Slices Parse.Cursor Parse.View
  Parse.WireSpec Parse.Repr Parse.StrictProofs Parse.HdrModel Parse.HdrView Parse.HdrCut
  Parse.HdrProofs Parse.HdrProofs2.
Import SlicedPacketCursor.

Local Open Scope N_scope.

Lemma repr_bytes_ok bs s pos lim : bytes_ok bs -> repr bs s pos lim -> bytes_ok (snd s).
Proof. intros H (-> & _). cbn [snd]. apply bytes_ok_take. now apply bytes_ok_drop. Qed.

Lemma shift_add l a b k : a + k = b -> ELen (le_add_offset l b) = shift k (ELen (le_add_offset l a)).
Proof. intros <-. unfold shift, le_add_offset. cbn. f_equal. f_equal. lia. Qed.

Lemma shift_add0 l b k : k = b -> ELen (le_add_offset l b) = shift k (ELen l).
Proof. intros <-. reflexivity. Qed.

Lemma shift_0 e : shift 0 e = e.
Proof. destruct e as [[r l s y o]|c]; [|reflexivity]. unfold shift, le_add_offset. cbn. now rewrite N.add_0_r. Qed.

Lemma map_eq_len {A B C} (f : A -> C) (g : B -> C) l l' : map f l = map g l' -> len l = len l'.
Proof.
  intros H. unfold len. f_equal. rewrite <- (map_length f l), <- (map_length g l'). now rewrite H.
Qed.

Lemma exts_src_snoc_vlan l s acc : exts_src (l ++ [LeVlan s]) acc = exts_src l acc.
Proof.
  revert acc. induction l as [|x l IH]; intros acc; [reflexivity|].
  cbn [app exts_src]. destruct x as [v|m]; [apply IH|].
  destruct (Macsec.short_len (ms_header m)); cbn [bind]; try reflexivity. apply IH.
Qed.

Lemma exts_src_snoc_macsec l m acc :
  exts_src (l ++ [LeMacsec m]) acc =
  (let* a := exts_src l acc in
   let* sl := Macsec.short_len (ms_header m) in
   Ok (if 0 <? sl then LsMacsecShortLength else a)).
Proof.
  revert acc. induction l as [|x l IH]; intros acc.
  - cbn [app exts_src bind]. destruct (Macsec.short_len (ms_header m)); reflexivity.
  - cbn [app exts_src]. destruct x as [v|m']; [apply IH|].
    destruct (Macsec.short_len (ms_header m')); cbn [bind]; try reflexivity. apply IH.
Qed.

Lemma vlan_not_net et : is_vlan_type et = true ->
  (et =? ET_MACSEC) = false /\ (et =? ET_IPV4) = false /\ (et =? ET_IPV6) = false /\ (et =? ET_ARP) = false.
Proof.
  unfold is_vlan_type, ET_VLAN, ET_QINQ, ET_VLAN_DOUBLE, ET_MACSEC, ET_IPV4, ET_IPV6, ET_ARP. lia.
Qed.

Lemma macsec_not_net et : (et =? ET_MACSEC) = true ->
  (et =? ET_IPV4) = false /\ (et =? ET_IPV6) = false /\ (et =? ET_ARP) = false.
Proof. unfold ET_MACSEC, ET_IPV4, ET_IPV6, ET_ARP. lia. Qed.

Lemma macsec_shape bs s pos lim : bytes_ok bs -> repr bs s pos lim ->
  match Macsec.from_slice s with
  | Ok m =>
      exists hl sl,
        Macsec.header_len (ms_header m) = Ok hl /\ Macsec.short_len (ms_header m) = Ok sl /\
        win_of (ms_header m) = (pos, hl) /\
        match ms_payload m with
        | MpUnmodified e =>
            exists lim', repr bs (ep_slice e) (pos + hl) lim' /\
              ep_src e = (if 0 <? sl then LsMacsecShortLength else LsSlice)
        | MpModified _ => True
        end
  | Err _ => True
  | Bug _ => False
  end.
Proof.
  intros Hok R. rewrite (macsec_from_slice_eq bs s pos lim Hok R).
  destruct (lim - pos <? 6) eqn:E6; [exact I|].
  destruct (128 <=? B bs pos) eqn:Ever; [exact I|].
  set (tci := B bs pos) in *.
  set (sl := B bs (pos + 1) mod 64) in *.
  set (unmod := (tci / 4) mod 4 =? 0) in *.
  set (sc := negb ((tci / 32) mod 2 =? 0)) in *.
  destruct (unmod && (sl =? 1)) eqn:Eu; [exact I|].
  set (hl := 6 + (if unmod then 2 else 0) + (if sc then 8 else 0)) in *.
  destruct (lim - pos <? hl) eqn:Eh; [exact I|].
  set (body := if unmod then sl - 2 else sl) in *.
  destruct ((0 <? sl) && (lim - pos <? hl + body)) eqn:Eb; [exact I|].
  cbn zeta.
  set (plen := if 0 <? sl then body else lim - pos - hl) in *.
  set (psrc := if 0 <? sl then LsMacsecShortLength else LsSlice) in *.
  assert (Hhl : hl <= lim - pos) by (clear -Eh; lia).
  assert (Hhl6 : 6 <= hl) by (clear; subst hl; destruct unmod, sc; lia).
  pose proof (repr_sub bs s pos lim 0 hl R ltac:(clear -Hhl; lia)) as Rh.
  rewrite N.add_0_r, drop0 in Rh.
  set (header := (pos, take hl (snd s))) in *.
  assert (Hplen : hl + plen <= lim - pos).
  { subst plen. clear -Eb Hhl. clearbody hl body sl. destruct (0 <? sl); cbn [andb] in Eb; lia. }
  pose proof (repr_sub bs s pos lim hl plen R Hplen) as Rp.
  set (payload := (pos + hl, take plen (drop hl (snd s)))) in *.
  pose proof (B_lt bs pos Hok) as Ht. fold tci in Ht.
  exists hl, sl. cbn [ms_header ms_payload].
  split.
  { unfold Macsec.header_len, Macsec.sci_present, Macsec.is_unmodified, Macsec.tci_an_raw.
    rd8 Rh 0. rewrite N.add_0_r. fold tci.
    rewrite (bit32 tci Ht), (land12 tci Ht). fold sc unmod. subst hl. f_equal. apply N.add_shuffle0. }
  split.
  { unfold Macsec.short_len. rd8 Rh 1. now rewrite land63_mod. }
  split.
  { rewrite (repr_win _ _ _ _ Rh). f_equal. lia. }
  destruct unmod; [|exact I]. cbn [ms_payload ep_slice ep_src].
  exists (pos + hl + plen). split; [exact Rp|reflexivity].
Qed.

Lemma arp_shape s :
  match ArpPacketSlice.from_slice s with
  | Ok a => s_off a = s_off s
  | Err _ => True
  | Bug _ => False
  end.
Proof.
  unfold ArpPacketSlice.from_slice.
  destruct (s_len s <? 8) eqn:E8; [exact I|].
  rdok s 4. rdok s 5.
  destruct (s_len s <? 8 + v * 2 + v0 * 2) eqn:El; [exact I|].
  rewrite subU_eq by lia. unfold s_off. cbn [fst]. lia.
Qed.

Definition strip (v : hview) : hview := mkHv None (hv_exts v) (hv_net v) (hv_tr v) (hv_payload v).

Definition np (n : net_slice) : option ip_payload :=
  match n with
  | NtIpv4 v => Some (v4_payload v)
  | NtIpv6 v => Some (v6_payload v)
  | NtArp _ => None
  end.

Definition ip_net (i : ip_slice) : net_slice :=
  match i with IpV4 v => NtIpv4 v | IpV6 v => NtIpv6 v end.

Definition ipd_rel (s : slice) (h : res (ip_headers * ip_payload)) (r : res ip_slice) : Prop :=
  match h, r with
  | Ok (ih, p), Ok i =>
      np (ip_net i) = Some p /\ s_off s <= s_off (ipp_slice p) /\
      hview_net (HnIp ih) = Ok (conv_net (ip_net i))
  | Err e, Err e' => e = e'
  | _, _ => False
  end.

Lemma v4_tail_ipd s header hp :
  bytes_ok (snd hp) -> 20 <= s_len header -> s_off s <= s_off hp ->
  ipd_rel s (IpHeaders.v4_exts header hp) (let* v := Ipv4Slice.finish header hp in Ok (IpV4 v)).
Proof.
  intros Hok H20 Hs. pose proof (v4_exts_agree header hp Hok H20) as A. unfold ip4_rel in A.
  destruct (IpHeaders.v4_exts header hp) as [[ih p]|e|b];
    destruct (Ipv4Slice.finish header hp) as [v|e'|b']; try contradiction; cbn [bind].
  - destruct A as (-> & -> & A3). unfold ipd_rel. cbn [ip_net np]. split; [reflexivity|]. split; [lia|].
    reflexivity.
  - exact A.
Qed.

Lemma v6_tail_ipd s header hp src :
  bytes_ok (snd hp) -> s_len header = 40 -> s_off hp = s_off header + 40 -> s_off s <= s_off hp ->
  ipd_rel s (IpHeaders.v6_exts header hp src) (let* v := cut_v6_tail header hp src in Ok (IpV6 v)).
Proof.
  intros Hok H40 Hoff Hs. pose proof (v6_tail_agree s header hp src Hok H40 Hoff Hs) as A.
  unfold ip6_rel in A.
  destruct (IpHeaders.v6_exts header hp src) as [[ih p]|e|b];
    destruct (cut_v6_tail header hp src) as [v|e'|b']; try contradiction; cbn [bind].
  - destruct A as (-> & A2 & A3). unfold ipd_rel. cbn [ip_net np]. split; [reflexivity|]. split; [lia|].
    exact A3.
  - exact A.
Qed.

(* IpHeaders::from_slice and the cut IpSlice::from_slice fail alike, or are the two IPv4 tails,
   or the two IPv6 tails (outside F11: a first nibble 4 comes with at least 20 bytes) *)
Lemma ip_expose s :
  bytes_ok (snd s) ->
  (forall b0, rd (snd s) 0 = Some b0 -> N.shiftr b0 4 = 4 -> 20 <= s_len s) ->
  (exists e, IpHeaders.from_slice s = Err e /\ Cut.ip_from_slice true s = Err e) \/
  (exists header hp, bytes_ok (snd hp) /\ 20 <= s_len header /\ s_off s <= s_off hp /\
     IpHeaders.from_slice s = IpHeaders.v4_exts header hp /\
     Cut.ip_from_slice true s = (let* v := Ipv4Slice.finish header hp in Ok (IpV4 v))) \/
  (exists header hp src, tail_ok s header hp /\
     IpHeaders.from_slice s = IpHeaders.v6_exts header hp src /\
     Cut.ip_from_slice true s = (let* v := cut_v6_tail header hp src in Ok (IpV6 v))).
Proof.
  intros Hok Hf. unfold IpHeaders.from_slice, Cut.ip_from_slice.
  assert (Fail : forall e : slice_error, exists e', @Err (ip_headers * ip_payload) e = Err e' /\ @Err ip_slice e = Err e')
    by (intros e; now exists e).
  destruct (s_len s =? 0) eqn:E0; [left; apply Fail|].
  unfold rdU. destruct (rd_lt_Some (snd s) 0) as (b0 & Eb); [unfold s_len in *; lia|].
  rewrite Eb. cbn [bind].
  destruct (N.shiftr b0 4 =? 4) eqn:V4.
  { assert (H20 : 20 <= s_len s) by (apply (Hf b0); [exact Eb|lia]).
    destruct (s_len s <? 20) eqn:E20; [lia|].
    destruct (N.land b0 15 <? 5) eqn:Ei; [left; apply Fail|].
    set (hl := N.land b0 15 * 4) in *.
    destruct (s_len s <? hl) eqn:El; [left; apply Fail|].
    rewrite subU_eq by lia. cbn [bind].
    set (header := (fst s + 0, take hl (drop 0 (snd s)))).
    assert (Hh : s_len header = hl) by (apply s_len_sub; lia).
    assert (Hh20 : 20 <= s_len header) by lia.
    destruct (v4_accessors header Hh20) as (_ & _ & (tl & Etl)). rewrite Etl. cbn [bind].
    destruct (tl <? hl) eqn:Et; [left; apply Fail|].
    destruct (s_len s <? tl) eqn:Es; [left; apply Fail|].
    rewrite subN_ok by lia. cbn [bind]. rewrite subU_eq by lia. cbn [bind].
    right. left. exists header, (fst s + hl, take (tl - hl) (drop hl (snd s))). split; [now apply bytes_ok_window|].
    split; [exact Hh20|]. split; [unfold s_off; cbn [fst]; lia|]. split; reflexivity. }
  destruct (N.shiftr b0 4 =? 6) eqn:V6; [|left; apply Fail].
  destruct (s_len s <? 40) eqn:E40; [left; apply Fail|].
  rewrite subU_eq by lia. cbn [bind].
  set (header := (fst s + 0, take 40 (drop 0 (snd s)))).
  assert (Hh : s_len header = 40) by (apply s_len_sub; lia).
  rewrite cut_v6_finish_eq. unfold Ipv6HeaderSlice.payload_length.
  destruct (rd16_ok header 4) as (pl & Epl); [lia|]. rewrite Epl. cbn [bind].
  destruct ((0 =? pl) && (40 <? s_len s)) eqn:Ez.
  - rewrite subN_ok by lia. cbn [bind]. rewrite subU_eq by lia. cbn [bind fst snd].
    right. right. exists header, (fst s + 40, take (s_len s - 40) (drop 40 (snd s))), LsSlice.
    split; [|split; reflexivity].
    split; [now apply bytes_ok_window|]. split; [exact Hh|]. unfold s_off, header. cbn [fst]. lia.
  - cbn zeta. destruct (s_len s <? 40 + pl) eqn:El; [left; apply Fail|].
    rewrite subU_eq by lia. cbn [bind fst snd].
    right. right. exists header, (fst s + 40, take pl (drop 40 (snd s))), LsIpv6HeaderPayloadLen.
    split; [|split; reflexivity].
    split; [now apply bytes_ok_window|]. split; [exact Hh|]. unfold s_off, header. cbn [fst]. lia.
Qed.

Lemma ip_agree s :
  bytes_ok (snd s) ->
  (forall b0, rd (snd s) 0 = Some b0 -> N.shiftr b0 4 = 4 -> 20 <= s_len s) ->
  ipd_rel s (IpHeaders.from_slice s) (Cut.ip_from_slice true s).
Proof.
  intros Hok Hf.
  destruct (ip_expose s Hok Hf) as [(e & -> & ->)|[(header & hp & Hb & H20 & Hs & -> & ->)|
    (header & hp & src & (Hb & H40 & Ho & Hs) & -> & ->)]];
    [reflexivity|apply v4_tail_ipd; assumption|apply v6_tail_ipd; assumption].
Qed.

(* known finding F11: a first header announcing IPv4 in a buffer shorter than 20 bytes
   is rejected by both families with different error records *)
Definition F11 (bs : bytes) : bool :=
  match bs with
  | b0 :: _ => (N.shiftr b0 4 =? 4) && (len bs <? 20)
  | [] => false
  end.

(* outside F11 a first nibble 4 comes with at least 20 bytes *)
Lemma F11_false_len bs : F11 bs = false ->
  forall b0, rd (snd (mk_slice bs)) 0 = Some b0 -> N.shiftr b0 4 = 4 -> 20 <= s_len (mk_slice bs).
Proof.
  intros Hf b0 Eb V. unfold mk_slice, s_len in *. cbn [snd] in *.
  destruct bs as [|x r]; [discriminate|]. unfold rd in Eb. cbn in Eb. injection Eb as ->.
  unfold F11 in Hf. rewrite V in Hf. cbn [andb] in Hf. change (4 =? 4) with true in Hf. cbn [andb] in Hf. lia.
Qed.

Lemma hview_net_v6 hd x w :
  hview_net (HnIp (IhV6 hd x)) = Ok w -> match w with HvIpv6 _ _ _ _ => True | _ => False end.
Proof.
  unfold hview_net. intros H.
  destruct (Ipv6HeaderSlice.next_header hd); cbn [bind] in H; try discriminate.
  destruct (Ipv6Extensions.is_fragmenting_payload x); cbn [bind] in H; try discriminate.
  now injection H as <-.
Qed.

(* The lock-step below carries, beside the equality of the views, a relation N6 between the
   IPv6 layer of the struct result (header slice, extension struct) and the Ipv6Slice of the
   slicing result.  It is a parameter: all the lock-step needs of it is that the two IPv6
   tails (IpHeaders.v6_exts, cut_v6_tail) establish it.  With N6 := True what remains is the agreement of the views
   (the theorems hdr_agree_NAME); HdrSlots2.v puts the slot-by-slot relation in its place. *)
Section Lockstep.
Variable N6 : slice -> exts6 -> ipv6_slice -> Prop.

Definition ip6_ok (ih : ip_headers) (n : net_slice) : Prop :=
  forall hd x v, ih = IhV6 hd x -> n = NtIpv6 v -> N6 hd x v.

Definition tail_sound : Prop := forall header hp src ih p v,
  bytes_ok (snd hp) -> s_len header = 40 -> s_off hp = s_off header + 40 ->
  IpHeaders.v6_exts header hp src = Ok (ih, p) -> cut_v6_tail header hp src = Ok v -> ip6_ok ih (NtIpv6 v).

Lemma tail_v6 (T : tail_sound) s ih p v : bytes_ok (snd s) ->
  IpHeaders.from_ipv6_slice s = Ok (ih, p) -> Cut.v6_from_slice true s = Ok v -> ip6_ok ih (NtIpv6 v).
Proof.
  intros Hok Eh Ec.
  destruct (v6_expose s Hok) as [(e & E & _)|(header & hp & src & (Hb & H40 & Ho & _) & E1 & E2)];
    [congruence|].
  rewrite E1 in Eh. rewrite E2 in Ec. exact (T _ _ _ _ _ _ Hb H40 Ho Eh Ec).
Qed.

Lemma tail_ip (T : tail_sound) s ih p i : bytes_ok (snd s) ->
  (forall b0, rd (snd s) 0 = Some b0 -> N.shiftr b0 4 = 4 -> 20 <= s_len s) ->
  IpHeaders.from_slice s = Ok (ih, p) -> Cut.ip_from_slice true s = Ok i -> ip6_ok ih (ip_net i).
Proof.
  intros Hok Hf Eh Ec.
  destruct (ip_expose s Hok Hf) as [(e & E & _)|[(header & hp & _ & _ & _ & _ & E2)|
    (header & hp & src & (Hb & H40 & Ho & _) & E1 & E2)]]; [congruence| |]; rewrite E2 in Ec.
  - destruct (Ipv4Slice.finish header hp); cbn [bind] in Ec; try discriminate.
    injection Ec as <-. intros hd x v _ V. discriminate V.
  - rewrite E1 in Eh. destruct (cut_v6_tail header hp src) as [v|e|b] eqn:Et; cbn [bind] in Ec; try discriminate.
    injection Ec as <-. exact (T _ _ _ _ _ _ Hb H40 Ho Eh Et).
Qed.

Definition net6_agree (p : hpacket) (sp : sliced_packet) : Prop :=
  forall hd x, h_net p = Some (HnIp (IhV6 hd x)) -> exists v, sp_net sp = Some (NtIpv6 v) /\ N6 hd x v.

Definition pk6_rel (h : res hpacket) (s : res sliced_packet) : Prop :=
  match h, s with Ok p, Ok sp => net6_agree p sp | _, _ => True end.

(* struct result without its link header against a slicing result whose link is lk;
   struct side errors still lack the offset k of the caller's buffer *)
Definition pk_rel (k : N) (lk : option link_slice) (h : res hpacket) (s : res sliced_packet) : Prop :=
  match h, s with
  | Ok p, Ok sp =>
      h_link p = None /\ sp_link sp = lk /\
      (exists v v', hview_of p = Ok v /\ conv sp = Ok v' /\ v = strip v') /\ net6_agree p sp
  | Err eh, Err es => es = shift k eh
  | _, _ => False
  end.

(* a struct result without IPv6 network layer *)
Lemma net6_agree_other l e n t pl sp :
  (forall hd x, n <> Some (HnIp (IhV6 hd x))) -> net6_agree (mkH l e n t pl) sp.
Proof. intros Hn hd x X. now destruct (Hn hd x). Qed.

(* behind the IP headers: read_transport against the cursor's transport dispatch *)
Lemma ip_tail k slice c s (exts : list hlink_ext) ih p n :
  s_off slice <= s_off s -> s_off s <= s_off (ipp_slice p) ->
  c_offset c = k + (s_off s - s_off slice) ->
  map hview_ext exts = map conv_ext (sp_exts (c_result c)) ->
  sp_transport (c_result c) = None ->
  hview_net (HnIp ih) = Ok (conv_net n) -> np n = Some p -> ip6_ok ih n ->
  pk_rel k (sp_link (c_result c))
    (match read_transport p with
     | Err (ELen e) => PacketHeaders.add_offset slice (ipp_slice p) e
     | Err e => Err e
     | Bug b => Bug b
     | Ok (transport, payload) => Ok (mkH None exts (Some (HnIp ih)) transport payload)
     end)
    (let* d := ptr_diff (ipp_slice p) s in
     transport_dispatch (set_net c (c_offset c + d) (ipp_src p) n) p).
Proof.
  intros L1 L2 Hoff Hx Htr Hnet Hnp H6.
  unfold ptr_diff. rewrite subN_ok by lia. cbn [bind].
  set (c' := set_net c (c_offset c + (s_off (ipp_slice p) - s_off s)) (ipp_src p) n).
  pose proof (transport_agree c' p eq_refl Htr) as T.
  unfold tr_rel in T.
  destruct (read_transport p) as [[t pl]|[l|ce]|b];
    destruct (transport_dispatch c' p) as [sp|es|b']; try contradiction.
  - destruct T as (T1 & T2 & T3 & T4). unfold pk_rel. cbn [h_link].
    split; [reflexivity|]. split; [exact T1|]. split.
    2:{ intros hd x X. injection X as ->. rewrite T3. subst c'. cbn [set_net c_result sp_net].
        pose proof (hview_net_v6 _ _ _ Hnet) as W.
        destruct n as [v4|v|ar]; try contradiction. exists v. split; [reflexivity|]. now apply H6. }
    unfold hview_of. cbn [h_link h_exts h_net h_transport h_payload]. rewrite Hnet. cbn [bind].
    unfold conv. rewrite T2, T3. subst c'. cbn [set_net c_result sp_exts sp_net option_map].
    destruct (sp_transport sp) as [ts|].
    + destruct T4 as (t' & -> & Ec). rewrite Ec. cbn [bind fst snd option_map].
      eexists. eexists. split; [reflexivity|]. split; [reflexivity|].
      unfold strip. cbn [hv_exts hv_net hv_tr hv_payload]. now rewrite Hx.
    + destruct T4 as (-> & ->).
      destruct n as [v|v|a]; cbn [np] in Hnp; try discriminate; injection Hnp as <-; cbn [bind fst snd option_map];
        (eexists; eexists; split; [reflexivity|]; split; [reflexivity|];
         unfold strip; cbn [hv_exts hv_net hv_tr hv_payload hview_payload]; now rewrite Hx).
  - unfold PacketHeaders.add_offset, ptr_off. rewrite subN_ok by lia. cbn [bind]. unfold pk_rel.
    rewrite T. subst c'. cbn [set_net c_offset]. unfold shift at 1. apply shift_add. lia.
  - unfold pk_rel. rewrite T. reflexivity.
Qed.

Record loop_inv (bs : bytes) (k : N) (slice : Types.slice) (st : hstate) (c : cursor)
  (ep : ether_payload) (pos lim : N) : Prop := mkLoopInv {
  li_et : ep_ether_type ep = hs_et st;
  li_slice : ep_slice ep = hs_rest st;
  li_repr : repr bs (hs_rest st) pos lim;
  li_base : s_off slice <= pos;
  li_off : c_offset c = k + (pos - s_off slice);
  li_exts : map hview_ext (hs_exts st) = map conv_ext (sp_exts (c_result c));
  li_net : sp_net (c_result c) = None;
  li_tr : sp_transport (c_result c) = None;
  li_src : exts_src (sp_exts (c_result c)) LsSlice = Ok (hs_src st);
  li_payload : conv_ether_payload (c_result c) = Ok (hview_payload (hs_payload st)) }.

Lemma net_else bs k slice st c ep pos lim :
  loop_inv bs k slice st c ep pos lim ->
  pk_rel k (sp_link (c_result c)) (Ok (mkH None (hs_exts st) None None (hs_payload st))) (Ok (c_result c)).
Proof.
  intros [I1 I2 I3 I4 I5 I6 I7 I8 I9 I10]. unfold pk_rel. cbn [h_link].
  split; [reflexivity|]. split; [reflexivity|].
  split; [|apply net6_agree_other; intros; discriminate].
  unfold hview_of, conv. cbn [h_link h_exts h_net h_transport h_payload bind option_map].
  rewrite I7, I8, I10. cbn [bind fst snd option_map].
  eexists. eexists. split; [reflexivity|]. split; [reflexivity|].
  unfold strip. cbn [hv_exts hv_net hv_tr hv_payload]. now rewrite I6.
Qed.

Lemma net_agree (N6_tail : tail_sound) bs (Hok : bytes_ok bs) k slice st c ep pos lim :
  loop_inv bs k slice st c ep pos lim ->
  pk_rel k (sp_link (c_result c)) (PacketHeaders.net_part slice st)
    (if ep_ether_type ep =? ET_ARP then slice_arp c (ep_slice ep)
     else if ep_ether_type ep =? ET_IPV4 then slice_ipv4 c (ep_slice ep)
     else if ep_ether_type ep =? ET_IPV6 then Cut.slice_ipv6 true c (ep_slice ep)
     else Ok (c_result c)).
Proof.
  intros Inv. pose proof Inv as [I1 I2 I3 I4 I5 I6 I7 I8 I9 I10].
  rewrite I1, I2. unfold PacketHeaders.net_part.
  set (rest := hs_rest st) in *.
  pose proof (repr_off _ _ _ _ I3) as Ro.
  pose proof (repr_bytes_ok _ _ _ _ Hok I3) as Rok.
  destruct (hs_et st =? ET_IPV4) eqn:E4.
  { assert (Ea : (hs_et st =? ET_ARP) = false) by (unfold ET_IPV4, ET_ARP in *; lia). rewrite Ea.
    unfold slice_ipv4.
    pose proof (v4_agree rest Rok) as A. unfold ip4_rel in A.
    destruct (IpHeaders.from_ipv4_slice rest) as [[ih p]|[l|ce]|b];
      destruct (Ipv4Slice.from_slice rest) as [v|e'|b']; try contradiction; cbn [map_len_err bind].
    - destruct A as (-> & -> & A3).
      apply (ip_tail k slice c rest (hs_exts st) _ (v4_payload v) (NtIpv4 v)); auto; try lia.
      intros hd x v0 X. discriminate X.
    - subst e'. cbn [map_len_err bind]. unfold PacketHeaders.add_offset, ptr_off.
      rewrite subN_ok by lia. cbn [bind]. unfold pk_rel. apply shift_add. lia.
    - subst e'. reflexivity. }
  destruct (hs_et st =? ET_IPV6) eqn:E6.
  { assert (Ea : (hs_et st =? ET_ARP) = false) by (unfold ET_IPV6, ET_ARP in *; lia). rewrite Ea.
    unfold Cut.slice_ipv6.
    pose proof (v6_agree rest Rok) as A. unfold ip6_rel in A.
    destruct (IpHeaders.from_ipv6_slice rest) as [[ih p]|[l|ce]|b] eqn:Eh;
      destruct (Cut.v6_from_slice true rest) as [v|e'|b'] eqn:Ec; try contradiction; cbn [map_len_err bind].
    - destruct A as (-> & A2 & A3).
      apply (ip_tail k slice c rest (hs_exts st) ih (v6_payload v) (NtIpv6 v)); auto; try lia.
      exact (tail_v6 N6_tail rest ih _ v Rok Eh Ec).
    - subst e'. cbn [map_len_err bind]. unfold PacketHeaders.add_offset, ptr_off.
      rewrite subN_ok by lia. cbn [bind]. unfold pk_rel. apply shift_add. lia.
    - subst e'. reflexivity. }
  destruct (hs_et st =? ET_ARP) eqn:Ea; [|now apply (net_else bs k slice st c ep pos lim)].
  unfold slice_arp. pose proof (arp_shape rest) as Sh.
  destruct (ArpPacketSlice.from_slice rest) as [a|[l|ce]|b]; try contradiction; cbn [map_len_err bind].
  - unfold pk_rel. cbn [h_link set_net c_result sp_link]. split; [reflexivity|]. split; [reflexivity|].
      split; [|apply net6_agree_other; intros; discriminate].
    unfold hview_of, conv.
    cbn [h_link h_exts h_net h_transport h_payload hview_net bind option_map sp_transport sp_net sp_exts sp_link].
    rewrite I8. cbn [bind fst snd option_map conv_net].
    eexists. eexists. split; [reflexivity|]. split; [reflexivity|].
    unfold strip. cbn [hv_exts hv_net hv_tr hv_payload hview_payload]. now rewrite I6.
  - unfold PacketHeaders.add_offset, ptr_off.
    rewrite subN_ok by lia. cbn [bind]. unfold pk_rel. apply shift_add. lia.
  - reflexivity.
Qed.

Definition h_run (fuel : nat) (slice : Types.slice) (st : hstate) : res hpacket :=
  let* o := PacketHeaders.link_loop fuel slice st in
  match o with
  | LDone p => Ok p
  | LBreak st' => PacketHeaders.net_part slice st'
  end.

Lemma loop_agree (N6_tail : tail_sound) bs (Hok : bytes_ok bs) k slice cap :
  forall fuel st c ep pos lim,
    (cap < fuel)%nat -> N.of_nat cap + len (sp_exts (c_result c)) = 3 ->
    loop_inv bs k slice st c ep pos lim ->
    pk_rel k (sp_link (c_result c)) (h_run fuel slice st) (Cut.slice_ether_type_loop true fuel c ep).
Proof.
  induction cap as [|cap IH]; intros fuel st c ep pos lim Hf Hcap Inv;
    (destruct fuel as [|f]; [lia|]); pose proof Inv as [I1 I2 I3 I4 I5 I6 I7 I8 I9 I10];
    pose proof (map_eq_len _ _ _ _ I6) as Hlen;
    unfold h_run; cbn [PacketHeaders.link_loop Cut.slice_ether_type_loop]; rewrite I1, Hlen; unfold LINK_EXTS_CAP.
  - (* link_exts is full *)
    destruct (is_vlan_type (hs_et st)) eqn:Ev.
    { destruct (3 <=? len (sp_exts (c_result c))) eqn:E3; [|lia].
      destruct (vlan_not_net _ Ev) as (_ & Nv4 & Nv6 & Na).
      cbn [bind]. unfold PacketHeaders.net_part. rewrite Nv4, Nv6, Na. now apply (net_else bs k slice st c ep pos lim). }
    destruct (hs_et st =? ET_MACSEC) eqn:Em.
    { destruct (3 <=? len (sp_exts (c_result c))) eqn:E3; [|lia].
      destruct (macsec_not_net _ Em) as (Nv4 & Nv6 & Na).
      cbn [bind]. unfold PacketHeaders.net_part. rewrite Nv4, Nv6, Na. now apply (net_else bs k slice st c ep pos lim). }
    rewrite <- I1. now apply (net_agree N6_tail bs Hok k slice st c ep pos lim).
  - set (rest := hs_rest st) in *.
    pose proof (repr_off _ _ _ _ I3) as Ro. pose proof (repr_len _ _ _ _ I3) as Rl.
    destruct (is_vlan_type (hs_et st)) eqn:Ev.
    { (* VLAN tag *)
      destruct (3 <=? len (sp_exts (c_result c))) eqn:E3; [lia|].
      rewrite I2. fold rest.
      unfold SingleVlanHeader.from_slice, SingleVlanSlice.from_slice.
      destruct (s_len rest <? 4) eqn:E4.
      { unfold lerr. cbn [map_len_err bind]. unfold PacketHeaders.add_offset, ptr_off.
        rewrite subN_ok by lia. cbn [bind]. unfold pk_rel. apply shift_add. lia. }
      rewrite subU_eq by lia. cbn [bind]. rewrite idx_from_eq by lia. cbn [bind map_len_err].
      unfold SingleVlanHeader.ether_type, SingleVlanSlice.payload, SingleVlanSlice.ether_type,
        SingleVlanSlice.payload_slice.
      rewrite rd16_prefix by lia.
      destruct (rd16_ok rest 2) as (et' & Eet); [lia|]. rewrite Eet. cbn [bind].
      rewrite subN_ok by lia. cbn [bind]. rewrite subU_rest by lia. cbn [bind].
      unfold PacketHeaders.push, push_ext, LINK_EXTS_CAP. rewrite Hlen.
      destruct (len (sp_exts (c_result c)) <? 3) eqn:E3'; [|lia]. cbn [bind].
      set (vlan := (fst rest + 0, take 4 (drop 0 (snd rest)))).
      set (vrest := (fst rest + 4, drop 4 (snd rest))).
      assert (Rv : repr bs vrest (pos + 4) lim).
      { destruct (repr_rest bs rest pos lim 4 I3 ltac:(lia)) as (s' & Es' & Rs').
        rewrite <- Rl in Es'. rewrite subU_rest in Es' by lia. injection Es' as <-. exact Rs'. }
      match goal with |- pk_rel _ _ _ (Cut.slice_ether_type_loop _ _ ?c' _) =>
        apply (IH f _ c' _ (pos + 4) lim) end;
        [lia|cbn [c_result sp_exts]; rewrite len_app; cbn; lia|].
      constructor; cbn [ep_ether_type ep_slice hs_et hs_rest hs_exts hs_src hs_payload c_offset c_result
                         sp_exts sp_net sp_transport sp_link]; auto; try lia.
      - unfold SingleVlanSlice.header_len. lia.
      - rewrite !map_app, I6. cbn [map hview_ext conv_ext]. do 2 f_equal. subst vlan.
        rewrite win_sub by lia. unfold s_off. now rewrite N.add_0_r.
      - now rewrite exts_src_snoc_vlan.
      - unfold conv_ether_payload. cbn [sp_exts]. rewrite (map_app (@Some link_ext_slice)). cbn [map]. rewrite last_last.
        rewrite exts_src_snoc_vlan, I9. cbn [bind].
        unfold SingleVlanSlice.payload, SingleVlanSlice.ether_type, SingleVlanSlice.payload_slice.
        rewrite Eet. cbn [bind]. rewrite subN_ok by lia. cbn [bind]. rewrite subU_rest by lia. cbn [bind].
        reflexivity. }
    destruct (hs_et st =? ET_MACSEC) eqn:Em;
      [|rewrite <- I1; now apply (net_agree N6_tail bs Hok k slice st c ep pos lim)].
    (* MACsec *)
    destruct (3 <=? len (sp_exts (c_result c))) eqn:E3; [lia|].
    rewrite I2. fold rest.
    pose proof (macsec_shape bs rest pos lim Hok I3) as Sh.
    destruct (Macsec.from_slice rest) as [m|[l|ce]|b]; try contradiction; cbn [map_len_err bind].
    + destruct Sh as (hl & sl & Ehl & Esl & Wh & Shp).
      rewrite Ehl, Esl. cbn [bind].
      unfold PacketHeaders.push, push_ext, LINK_EXTS_CAP. rewrite Hlen.
      destruct (len (sp_exts (c_result c)) <? 3) eqn:E3'; [|lia]. cbn [bind].
      assert (Hx : map hview_ext (hs_exts st ++ [HxMacsec (ms_header m)]) =
                   map conv_ext (sp_exts (c_result c) ++ [LeMacsec m])).
      { rewrite !map_app, I6. reflexivity. }
      destruct (ms_payload m) as [e|mp] eqn:Emp.
      * destruct Shp as (lim' & Re & Esrc).
        pose proof (repr_off _ _ _ _ Re) as Reo.
        match goal with |- pk_rel _ _ _ (Cut.slice_ether_type_loop _ _ ?c' _) =>
          apply (IH f _ c' _ (pos + hl) lim') end;
          [lia|cbn [c_result sp_exts]; rewrite len_app; cbn; lia|].
        constructor; cbn [ep_ether_type ep_slice hs_et hs_rest hs_exts hs_src hs_payload c_offset c_result
                           sp_exts sp_net sp_transport sp_link]; auto; try lia.
        -- rewrite exts_src_snoc_macsec, I9. cbn [bind]. rewrite Esl. cbn [bind]. rewrite Esrc.
           destruct (0 <? sl); reflexivity.
        -- unfold conv_ether_payload. cbn [sp_exts]. rewrite (map_app (@Some link_ext_slice)). cbn [map]. rewrite last_last.
           rewrite Emp. rewrite exts_src_snoc_macsec, I9. cbn [bind]. rewrite Esl. cbn [bind]. rewrite Esrc.
           destruct (0 <? sl); reflexivity.
      * unfold pk_rel. cbn [h_link c_result sp_link]. split; [reflexivity|]. split; [reflexivity|].
          split; [|apply net6_agree_other; intros; discriminate].
        unfold hview_of, conv.
        cbn [h_link h_exts h_net h_transport h_payload bind option_map sp_transport sp_net sp_exts sp_link].
        rewrite I7, I8. unfold conv_ether_payload. cbn [sp_exts]. rewrite (map_app (@Some link_ext_slice)). cbn [map]. rewrite last_last.
        rewrite Emp. cbn [bind fst snd option_map].
        eexists. eexists. split; [reflexivity|]. split; [reflexivity|].
        unfold strip. cbn [hv_exts hv_net hv_tr hv_payload hview_payload]. now rewrite Hx.
    + unfold PacketHeaders.add_offset, ptr_off.
      rewrite subN_ok by lia. cbn [bind]. unfold pk_rel. apply shift_add. lia.
    + reflexivity.
Qed.

Lemma conv_link_field sp v : conv sp = Ok v ->
  hv_link v = match sp_link sp with Some l => conv_link l | None => None end.
Proof.
  unfold conv.
  destruct (match sp_transport sp with Some t => _ | None => _ end); cbn [bind]; try discriminate.
  intros H. injection H as <-. reflexivity.
Qed.

Lemma hview_of_link p v eth : hview_of p = Ok v ->
  hview_of (mkH eth (h_exts p) (h_net p) (h_transport p) (h_payload p)) =
  Ok (mkHv (option_map win_of eth) (hv_exts v) (hv_net v) (hv_tr v) (hv_payload v)).
Proof.
  unfold hview_of. cbn [h_link h_exts h_net h_transport h_payload].
  destruct (match h_net p with Some n => _ | None => _ end); cbn [bind]; try discriminate.
  intros H. injection H as <-. reflexivity.
Qed.

(* from the relation to `hagree`, once the link header eth is put in front *)
Lemma pk_rel_hagree k lk eth h s :
  pk_rel k lk h s ->
  option_map win_of eth = match lk with Some l => conv_link l | None => None end ->
  let h' := match h with
            | Ok r => Ok (mkH eth (h_exts r) (h_net r) (h_transport r) (h_payload r))
            | Err (ELen e) => Err (ELen (le_add_offset e k))
            | Err (EContent c) => Err (EContent c)
            | Bug b => Bug b
            end in
  hagree h' s /\ pk6_rel h' s.
Proof.
  unfold pk_rel, hagree. destruct h as [p|e|b]; destruct s as [sp|es|b']; try contradiction.
  - intros (Hl & Hlk & (v & v' & Hv & Hc & ->) & H6) Heth. cbn [hvres_of_h hvres_of_s].
    split; [|exact H6].
    rewrite (hview_of_link _ _ eth Hv), Hc. split; [|discriminate]. f_equal.
    pose proof (conv_link_field _ _ Hc) as F. rewrite Hlk in F.
    destruct v' as [vl vx vn vt vp]. cbn [strip hv_link hv_exts hv_net hv_tr hv_payload] in *.
    now rewrite Heth, F.
  - intros -> _. split; [|now destruct e as [l|c]].
    destruct e as [l|c]; cbn [shift hvres_of_h hvres_of_s]; split; try discriminate; reflexivity.
Qed.

Lemma pk_rel_hagree0 lk h s :
  pk_rel 0 lk h s -> match lk with Some l => conv_link l | None => None end = None ->
  hagree h s /\ pk6_rel h s.
Proof.
  intros P Hl. pose proof (pk_rel_hagree 0 lk None h s P) as A. cbn [option_map] in A.
  rewrite Hl in A. specialize (A eq_refl). cbv zeta in A.
  destruct h as [p|[l|c]|b]; try exact A.
  - destruct s as [sp|es|b']; try contradiction. destruct P as (Hn & _).
    destruct p as [pl px pn pt pp]. cbn [h_link] in Hn. subst pl. exact A.
  - pose proof (shift_0 (ELen l)) as Z. cbn [shift] in Z. injection Z as Z. now rewrite Z in A.
Qed.

Lemma lockstep_ether_type (N6_tail : tail_sound) et bs : bytes_ok bs ->
  hagree (PacketHeaders.from_ether_type et bs) (Cut.from_ether_type true et bs) /\
  pk6_rel (PacketHeaders.from_ether_type et bs) (Cut.from_ether_type true et bs).
Proof.
  intros Hok.
  unfold PacketHeaders.from_ether_type, PacketHeaders.from_ether_type_slice, Cut.from_ether_type,
    Cut.slice_ether_type.
  set (ep := mkEtherPayload et LsSlice (mk_slice bs)).
  set (c := set_link new 0 (LkEtherPayload ep)).
  set (st := mkHs [] (HpEther (mkEtherPayload et LsSlice (mk_slice bs))) (mk_slice bs) et LsSlice).
  apply (pk_rel_hagree0 (sp_link (c_result c))); [|reflexivity].
  apply (loop_agree N6_tail bs Hok 0 (mk_slice bs) 3 5 st c ep 0 (len bs)); [lia|reflexivity|].
  constructor; try reflexivity; try apply repr_whole.
  all: unfold s_off, mk_slice; cbn [fst]; lia.
Qed.

Lemma lockstep_ethernet (N6_tail : tail_sound) bs : bytes_ok bs ->
  hagree (PacketHeaders.from_ethernet_slice bs) (Cut.from_ethernet true bs) /\
  pk6_rel (PacketHeaders.from_ethernet_slice bs) (Cut.from_ethernet true bs).
Proof.
  intros Hok.
  unfold PacketHeaders.from_ethernet_slice, Cut.from_ethernet, Cut.slice_ethernet2, Cut.slice_ether_type,
    Ethernet2Header.from_slice, Ethernet2Slice.from_slice_without_fcs.
  set (s := mk_slice bs).
  pose proof (repr_whole bs) as R. fold s in R.
  pose proof (repr_len _ _ _ _ R) as Rl. rewrite N.sub_0_r in Rl.
  destruct (s_len s <? 14) eqn:E14.
  { unfold lerr, hagree. cbn [bind map_len_err hvres_of_h hvres_of_s]. split; [|exact I].
    split; [reflexivity|discriminate]. }
  rewrite subU_eq by lia. cbn [bind map_len_err]. rewrite idx_from_eq by lia. cbn [bind].
  unfold Ethernet2Header.ether_type, Ethernet2Slice.payload, Ethernet2Slice.ether_type,
    Ethernet2Slice.payload_slice.
  rewrite rd16_prefix by lia.
  destruct (rd16_ok s 12) as (et & Eet); [lia|]. rewrite Eet. cbn [bind].
  rewrite subN_ok by lia. cbn [bind]. rewrite subU_rest by lia. cbn [bind].
  set (eth := (fst s + 0, take 14 (drop 0 (snd s)))).
  set (rest := (fst s + 14, drop 14 (snd s))).
  set (ep := mkEtherPayload et LsSlice rest).
  set (c := set_link new (c_offset new + Ethernet2Slice.header_len) (LkEthernet2 s)).
  assert (Rr : repr bs rest 14 (len bs)).
  { destruct (repr_rest bs s 0 (len bs) 14 R ltac:(lia)) as (s' & Es' & Rs').
    rewrite N.sub_0_r, <- Rl in Es'. rewrite subU_rest in Es' by lia. injection Es' as <-. exact Rs'. }
  unfold PacketHeaders.from_ether_type_slice.
  set (st := mkHs [] (HpEther (mkEtherPayload et LsSlice rest)) rest et LsSlice).
  apply (pk_rel_hagree 14 (sp_link (c_result c)) (Some eth)).
  - apply (loop_agree N6_tail bs Hok 14 rest 3 5 st c ep 14 (len bs)); [lia|reflexivity|].
    constructor; try reflexivity; try exact Rr; try (unfold s_off, rest; cbn [fst]; lia).
    unfold conv_ether_payload. cbn [c set_link c_result sp_exts map last sp_link].
      unfold Ethernet2Slice.payload, Ethernet2Slice.ether_type, Ethernet2Slice.payload_slice.
      rewrite Eet. cbn [bind]. rewrite subN_ok by lia. cbn [bind]. rewrite subU_rest by lia. cbn [bind].
      reflexivity.
  - cbn [c set_link c_result sp_link conv_link option_map]. unfold eth. rewrite win_sub by lia.
    unfold s_off. now rewrite N.add_0_r.
Qed.

Lemma lockstep_ip (N6_tail : tail_sound) bs : bytes_ok bs -> F11 bs = false ->
  hagree (PacketHeaders.from_ip_slice bs) (Cut.from_ip true bs) /\
  pk6_rel (PacketHeaders.from_ip_slice bs) (Cut.from_ip true bs).
Proof.
  intros Hok Hf. unfold PacketHeaders.from_ip_slice, Cut.from_ip, Cut.slice_ip.
  set (s := mk_slice bs).
  pose proof (F11_false_len bs Hf) as Hf'. fold s in Hf'.
  pose proof (ip_agree s Hok Hf') as A. unfold ipd_rel in A.
  destruct (IpHeaders.from_slice s) as [[ih p]|e|b] eqn:Eh;
    destruct (Cut.ip_from_slice true s) as [i|e'|b'] eqn:Ec; try contradiction; cbn [map_len_err bind].
  - destruct A as (A1 & A2 & A3).
    assert (Ep : IpSlice.payload i = p) by (destruct i; cbn in A1; now injection A1).
    rewrite Ep.
    apply (pk_rel_hagree0 (sp_link (c_result new))); [|reflexivity].
    replace (match i with IpV4 v => NtIpv4 v | IpV6 v => NtIpv6 v end) with (ip_net i) by reflexivity.
    apply (ip_tail 0 s new s [] ih p (ip_net i)); auto; try lia; try (cbn; lia).
    exact (tail_ip N6_tail s ih p i Hok Hf' Eh Ec).
  - subst e'. split; [|now destruct e as [l|c]]. unfold hagree.
    destruct e as [l|c]; cbn [map_len_err bind hvres_of_h hvres_of_s]; (split; [|discriminate]); [|reflexivity].
    pose proof (shift_0 (ELen l)) as Z. cbn [shift] in Z. cbn [new c_offset]. now rewrite Z.
Qed.
End Lockstep.

Theorem hdr_agree_ether_type et bs : bytes_ok bs ->
  hagree (PacketHeaders.from_ether_type et bs) (Cut.from_ether_type true et bs).
Proof. intros Hok. now apply (lockstep_ether_type (fun _ _ _ => True)). Qed.

Theorem hdr_agree_ethernet bs : bytes_ok bs ->
  hagree (PacketHeaders.from_ethernet_slice bs) (Cut.from_ethernet true bs).
Proof. intros Hok. now apply (lockstep_ethernet (fun _ _ _ => True)). Qed.

Theorem hdr_agree_ip bs : bytes_ok bs -> F11 bs = false ->
  hagree (PacketHeaders.from_ip_slice bs) (Cut.from_ip true bs).
Proof. intros Hok Hf. now apply (lockstep_ip (fun _ _ _ => True)). Qed.

Theorem hdr_f11_both_err bs : F11 bs = true ->
  (exists e, PacketHeaders.from_ip_slice bs = Err e) /\
  (forall cut, exists e, Cut.from_ip cut bs = Err e).
Proof.
  intros Hf. destruct bs as [|b0 r]; [discriminate|]. unfold F11 in Hf.
  apply andb_prop in Hf. destruct Hf as (V4 & L20).
  set (s := mk_slice (b0 :: r)).
  assert (Hl : s_len s = len (b0 :: r)) by reflexivity.
  assert (E0 : (s_len s =? 0) = false) by (rewrite Hl, len_cons; lia).
  assert (Eb : rd (snd s) 0 = Some b0) by reflexivity.
  split.
  - unfold PacketHeaders.from_ip_slice, IpHeaders.from_slice. fold s. rewrite E0, Eb. cbn [bind].
    rewrite V4. rewrite Hl, L20. unfold lerr. cbn [bind]. eauto.
  - intros cut. unfold Cut.from_ip, Cut.slice_ip, Cut.ip_from_slice. fold s. rewrite E0.
    unfold rdU. rewrite Eb. cbn [bind]. rewrite V4.
    destruct (N.land b0 15 <? 5) eqn:Ei; [cbn [map_len_err bind]; eauto|].
    destruct (s_len s <? N.land b0 15 * 4) eqn:El; [unfold lerr; cbn [map_len_err bind]; eauto|].
    rewrite Hl in El. lia.
Qed.

Lemma hagree_or_exception h c s :
  hagree h c -> (stopped_at_ext c = false -> (forall b, c <> Bug b) -> c = s) ->
  hagree h s \/ (stopped_at_ext c = true /\ hagree h c).
Proof.
  intros A Hc. destruct (stopped_at_ext c) eqn:E; [right; auto|left].
  rewrite <- Hc; auto. intros b ->. destruct A as (A1 & A2). apply (A2 b). now rewrite A1.
Qed.

Theorem hdr_eq_slices bs et : bytes_ok bs ->
  hagree (PacketHeaders.from_ethernet_slice bs) (Cut.from_ethernet true bs) /\
  hagree (PacketHeaders.from_ether_type et bs) (Cut.from_ether_type true et bs) /\
  (F11 bs = false -> hagree (PacketHeaders.from_ip_slice bs) (Cut.from_ip true bs)) /\
  (F11 bs = true ->
     (exists e, PacketHeaders.from_ip_slice bs = Err e) /\ (exists e, Cut.from_ip true bs = Err e) /\
     (exists e, SlicedPacket.from_ip bs = Err e)).
Proof.
  intros Hok. split; [now apply hdr_agree_ethernet|]. split; [now apply hdr_agree_ether_type|].
  split; [now apply hdr_agree_ip|].
  intros Hf. destruct (hdr_f11_both_err bs Hf) as (A & B).
  split; [exact A|]. split; [apply B|]. rewrite <- cut_false_from_ip. apply B.
Qed.

Theorem hdr_eq_slices_or_exception bs et : bytes_ok bs ->
  (hagree (PacketHeaders.from_ethernet_slice bs) (SlicedPacket.from_ethernet bs) \/
   (stopped_at_ext (Cut.from_ethernet true bs) = true /\
    hagree (PacketHeaders.from_ethernet_slice bs) (Cut.from_ethernet true bs))) /\
  (hagree (PacketHeaders.from_ether_type et bs) (SlicedPacket.from_ether_type et bs) \/
   (stopped_at_ext (Cut.from_ether_type true et bs) = true /\
    hagree (PacketHeaders.from_ether_type et bs) (Cut.from_ether_type true et bs))) /\
  (F11 bs = false ->
   hagree (PacketHeaders.from_ip_slice bs) (SlicedPacket.from_ip bs) \/
   (stopped_at_ext (Cut.from_ip true bs) = true /\
    hagree (PacketHeaders.from_ip_slice bs) (Cut.from_ip true bs))).
Proof.
  intros Hok. split; [|split].
  - apply hagree_or_exception; [now apply hdr_agree_ethernet|apply cut_only_when_stopped_ethernet].
  - apply hagree_or_exception; [now apply hdr_agree_ether_type|apply cut_only_when_stopped_ether_type].
  - intros Hf. apply hagree_or_exception; [now apply hdr_agree_ip|apply cut_only_when_stopped_ip].
Qed.

(* the struct decoders never reach an unwrap / push on a full ArrayVec / pointer
   subtraction underflow / out-of-range index; nor do the views *)
Theorem hdr_never_bug bs et b : bytes_ok bs ->
  hvres_of_h (PacketHeaders.from_ethernet_slice bs) <> HBug b /\
  hvres_of_h (PacketHeaders.from_ether_type et bs) <> HBug b /\
  hvres_of_h (PacketHeaders.from_ip_slice bs) <> HBug b.
Proof.
  intros Hok. split; [apply (hdr_agree_ethernet bs Hok)|]. split; [apply (hdr_agree_ether_type et bs Hok)|].
  destruct (F11 bs) eqn:Hf.
  - destruct (hdr_f11_both_err bs Hf) as ((e & ->) & _). discriminate.
  - apply (hdr_agree_ip bs Hok Hf).
Qed.

Lemma hvres_bug r b : r = Bug b -> hvres_of_h r = HBug b.
Proof. now intros ->. Qed.

Theorem hdr_never_bug_raw bs et b : bytes_ok bs ->
  PacketHeaders.from_ethernet_slice bs <> Bug b /\
  PacketHeaders.from_ether_type et bs <> Bug b /\
  PacketHeaders.from_ip_slice bs <> Bug b.
Proof.
  intros Hok. destruct (hdr_never_bug bs et b Hok) as (A & B & C).
  repeat split; intros E; [apply A|apply B|apply C]; now apply hvres_bug.
Qed.
