(* Parse/StrictFacts.v -- the facts about the reference decoder (WireSpecFacts.v,
   WireNested.v) transferred to the MODEL of strict slicing through the refinement
   theorems `from_*_rel` of StrictProofs.v (the theorems behind the C03_from_ / C07_from_ families):

   * an accepted packet's view is `nested` and lies inside the input;
   * a rejection has the same cause as a rejection of the reference decoder, which falls
     in one of the six classes of `classify`;
   * a reported length error has `required > len`, or is one of the two oversized rules;
   * `c07_truthful` holds and the model result is not `Bug` (the VBug arm of `c07_truthful`
     is `True`; `res_rel` excludes it). *)
From EP Require Import Base.Bytes Parse.Types Parse.Cursor Parse.View
  Parse.WireSpec Parse.StrictProofs Parse.WireSpecFacts Parse.WireNested.
From Coq Require Import Lia.

Local Open Scope N_scope.

(* the cause of a rejection, as `c03_rel` compares it *)
Definition same_cause (m s : slice_error) : Prop :=
  match m, s with
  | ELen a, ELen b => le_layer a = le_layer b /\ le_required a = le_required b /\ le_len a = le_len b
  | EContent a, EContent b => a = b
  | _, _ => False
  end.

Lemma len_direction_ext a b :
  le_layer a = le_layer b -> le_required a = le_required b -> le_len a = le_len b ->
  len_direction b -> len_direction a.
Proof. unfold len_direction. now intros -> -> ->. Qed.

(* what holds of every accepted view of the reference decoder holds of the model's view *)
Lemma rel_ok_fact (P : vpacket -> Prop) (r : res sliced_packet) s p :
  res_rel (vres_of r) s -> (forall v, s = VOk v -> P v) -> r = Ok p ->
  s = VOk (view p) /\ P (view p).
Proof. intros R H E. pose proof (res_rel_ok r s p R E) as Es. split; [exact Es|exact (H _ Es)]. Qed.

Lemma rel_ok_nested bs (r : res sliced_packet) s p :
  res_rel (vres_of r) s -> (forall v, s = VOk v -> nested bs v) -> r = Ok p ->
  s = VOk (view p) /\ nested bs (view p) /\ Forall (inside bs) (vwindows (view p)).
Proof.
  intros R H E. destruct (rel_ok_fact (nested bs) r s p R H E) as (Es & Hn).
  split; [exact Es|]. split; [exact Hn|now apply nested_inside].
Qed.

Lemma rel_err_class bs (r : res sliced_packet) s err :
  res_rel (vres_of r) s -> (forall serr, s = VErr serr -> exists c, classify bs serr = Some c) ->
  r = Err err ->
  exists serr c, s = VErr serr /\ same_cause err serr /\ classify bs serr = Some c.
Proof.
  intros R H ->. cbn [vres_of] in R.
  destruct s as [v|serr|b]; [destruct err; contradiction| |destruct err; contradiction].
  destruct (H serr eq_refl) as (c & Hc). exists serr, c. split; [reflexivity|]. split; [|exact Hc].
  destruct err as [a|a], serr as [b|b]; cbn in R; try contradiction; cbn.
  - destruct R as (H1 & H2 & H3 & _). auto.
  - exact R.
Qed.

Lemma rel_len_direction (r : res sliced_packet) s e :
  res_rel (vres_of r) s -> (forall se, s = VErr (ELen se) -> len_direction se) ->
  r = Err (ELen e) -> len_direction e.
Proof.
  intros R H ->. cbn [vres_of] in R.
  destruct s as [v|[se|c]|b]; cbn in R; try contradiction.
  destruct R as (H1 & H2 & H3 & _). exact (len_direction_ext e se H3 H1 H2 (H se eq_refl)).
Qed.

(* the same along c07_truthful (used for the struct decoders) *)
Lemma truthful_len_direction e s :
  c07_truthful (VErr (ELen e)) s -> (forall se, s = VErr (ELen se) -> len_direction se) ->
  len_direction e.
Proof.
  cbn. intros (se & -> & Hl & Ho & Hn & Hr & _) H. exact (len_direction_ext e se Hl Hr Hn (H se eq_refl)).
Qed.

Lemma rel_truthful_strong m s : res_rel m s -> c07_truthful m s /\ forall b, m <> VBug b.
Proof. intros R. split; [now apply res_rel_c07|now apply (res_rel_no_bug m s)]. Qed.

Section Entry.
  Variables (bs : bytes) (et : N).
  Hypothesis Hok : bytes_ok bs.

  Theorem strict_nested_from_ethernet p : SlicedPacket.from_ethernet bs = Ok p ->
    wire_ethernet bs = VOk (view p) /\ nested bs (view p) /\ Forall (inside bs) (vwindows (view p)).
  Proof. apply (rel_ok_nested bs _ _ p (from_ethernet_rel bs Hok)). apply wire_ethernet_nested. Qed.
  Theorem strict_nested_from_linux_sll p : SlicedPacket.from_linux_sll bs = Ok p ->
    wire_linux_sll bs = VOk (view p) /\ nested bs (view p) /\ Forall (inside bs) (vwindows (view p)).
  Proof. apply (rel_ok_nested bs _ _ p (from_linux_sll_rel bs Hok)). apply wire_linux_sll_nested. Qed.
  Theorem strict_nested_from_ether_type p : SlicedPacket.from_ether_type et bs = Ok p ->
    wire_ether_type bs et = VOk (view p) /\ nested bs (view p) /\ Forall (inside bs) (vwindows (view p)).
  Proof. apply (rel_ok_nested bs _ _ p (from_ether_type_rel bs et Hok)). apply wire_ether_type_nested. Qed.
  Theorem strict_nested_from_ip p : SlicedPacket.from_ip bs = Ok p ->
    wire_from_ip bs = VOk (view p) /\ nested bs (view p) /\ Forall (inside bs) (vwindows (view p)).
  Proof. apply (rel_ok_nested bs _ _ p (from_ip_rel bs Hok)). apply wire_from_ip_nested. Qed.

  Theorem strict_err_classes_from_ethernet err : SlicedPacket.from_ethernet bs = Err err ->
    exists serr c, wire_ethernet bs = VErr serr /\ same_cause err serr /\ classify bs serr = Some c.
  Proof.
    apply (rel_err_class bs _ _ err (from_ethernet_rel bs Hok)).
    intros serr. apply (wire_err_classes bs et serr).
  Qed.
  Theorem strict_err_classes_from_linux_sll err : SlicedPacket.from_linux_sll bs = Err err ->
    exists serr c, wire_linux_sll bs = VErr serr /\ same_cause err serr /\ classify bs serr = Some c.
  Proof.
    apply (rel_err_class bs _ _ err (from_linux_sll_rel bs Hok)).
    intros serr. apply (wire_err_classes bs et serr).
  Qed.
  Theorem strict_err_classes_from_ether_type err : SlicedPacket.from_ether_type et bs = Err err ->
    exists serr c, wire_ether_type bs et = VErr serr /\ same_cause err serr /\ classify bs serr = Some c.
  Proof.
    apply (rel_err_class bs _ _ err (from_ether_type_rel bs et Hok)).
    intros serr. apply (wire_err_classes bs et serr).
  Qed.
  Theorem strict_err_classes_from_ip err : SlicedPacket.from_ip bs = Err err ->
    exists serr c, wire_from_ip bs = VErr serr /\ same_cause err serr /\ classify bs serr = Some c.
  Proof.
    apply (rel_err_class bs _ _ err (from_ip_rel bs Hok)).
    intros serr. apply (wire_err_classes bs et serr).
  Qed.

  Theorem strict_len_direction e :
    (SlicedPacket.from_ethernet bs = Err (ELen e) -> len_direction e) /\
    (SlicedPacket.from_linux_sll bs = Err (ELen e) -> len_direction e) /\
    (SlicedPacket.from_ether_type et bs = Err (ELen e) -> len_direction e) /\
    (SlicedPacket.from_ip bs = Err (ELen e) -> len_direction e).
  Proof.
    split; [|split; [|split]].
    - apply (rel_len_direction _ _ e (from_ethernet_rel bs Hok)).
      intros se. apply (wire_len_direction bs et se).
    - apply (rel_len_direction _ _ e (from_linux_sll_rel bs Hok)).
      intros se. apply (wire_len_direction bs et se).
    - apply (rel_len_direction _ _ e (from_ether_type_rel bs et Hok)).
      intros se. apply (wire_len_direction bs et se).
    - apply (rel_len_direction _ _ e (from_ip_rel bs Hok)).
      intros se. apply (wire_len_direction bs et se).
  Qed.

  Theorem strict_truthful_strong :
    (c07_truthful (vres_of (SlicedPacket.from_ethernet bs)) (wire_ethernet bs) /\
     forall b, vres_of (SlicedPacket.from_ethernet bs) <> VBug b) /\
    (c07_truthful (vres_of (SlicedPacket.from_linux_sll bs)) (wire_linux_sll bs) /\
     forall b, vres_of (SlicedPacket.from_linux_sll bs) <> VBug b) /\
    (c07_truthful (vres_of (SlicedPacket.from_ether_type et bs)) (wire_ether_type bs et) /\
     forall b, vres_of (SlicedPacket.from_ether_type et bs) <> VBug b) /\
    (c07_truthful (vres_of (SlicedPacket.from_ip bs)) (wire_from_ip bs) /\
     forall b, vres_of (SlicedPacket.from_ip bs) <> VBug b).
  Proof.
    split; [|split; [|split]]; apply rel_truthful_strong;
      [apply from_ethernet_rel|apply from_linux_sll_rel|apply from_ether_type_rel|apply from_ip_rel];
      exact Hok.
  Qed.
End Entry.
