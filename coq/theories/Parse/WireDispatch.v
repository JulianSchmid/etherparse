(* Parse/WireDispatch.v -- facts ABOUT the accepted views of the reference decoder
   (Parse/WireSpec.v): layer DISPATCH and the documented CONTENT RULES.

   `dispatch bs e v` is a description of a view `v` of the bytes `bs` for entry point `e`.  It
   is not a decoder: it takes the view as given and says, layer by layer, which kind of layer
   may stand where, read off the octets the view points at:

     - link: Ethernet II announces the ether type in octets 12..13; Linux SLL (packet type
       <= 7, ARP hardware type one of NETLINK / IPGRE / IEEE80211_RADIOTAP / FRAD / ETHER)
       announces octets 14..15 as an ether type only for hardware type ETHER (1) and a
       protocol number that is not one of the Linux non-standard types, otherwise nothing;
       `from_ether_type et` announces `et`; `from_ip` has no link and no extensions;
     - link extensions: at most 3; each one is of the kind the ether type announced in front
       of it names (0x8100 / 0x88A8 / 0x9100 -> 802.1Q tag, 0x88E5 -> MACsec); a tag
       announces the ether type in its octets 2..3, a MACsec SecTAG with unmodified payload
       (E = 0, C = 0) the two octets that end the SecTAG, a SecTAG with modified payload
       announces nothing; accepted SecTAGs have version bit 0 and not (unmodified /\ SL = 1);
     - network layer: ARP behind 0x0806, IPv4 behind 0x0800, IPv6 behind 0x86DD; NO network
       layer exactly when nothing is announced (modified MACsec payload, SLL protocol that is
       no ether type), or a link-extension type is announced with 3 extensions already
       decoded (cap), or the announced type is none of the six types above;
       `from_ip`: IPv4 / IPv6 by the version nibble of the first octet, never none;
       accepted IPv4 headers: version 4, IHL >= 5, an authentication header is decoded
       exactly when the protocol octet is 51, its length octet is not 0;
       accepted IPv6 headers: version 6; the extension window is tiled exactly by extension
       headers (0 / 43 / 60 -> (len+1)*8 octets, 44 -> 8, 51 -> (len+2)*4, len octet <> 0),
       number 0 (hop-by-hop) only as the IPv6 header's own next header, and it ends at the
       first next-header number that is not one of 0, 43, 44, 51, 60 = the payload number;
       `first` is the IPv6 header's next header iff the window is not empty;
     - transport: ICMPv4 behind IP number 1 (a timestamp / timestamp reply message, type 13 /
       14 with code 0, is exactly 20 octets long -- crate rule), UDP 17, TCP 6 (data offset
       >= 5), ICMPv6 58, and
       only behind an unfragmented IP payload; NO transport layer exactly when there is no IP
       payload (no network layer / ARP), or it is fragmented, or its number is none of the 4.

   `wire_dispatch`: every view the reference decoder accepts satisfies `dispatch`.
   The "exactly when" readings are the corollaries `dispatch_no_net_iff`,
   `dispatch_no_transport_iff`, `dispatch_exts_stop`. *)
From EP Require Import Base.Bytes Parse.Types Parse.View Parse.WireSpec Parse.WireSpecFacts
  Parse.WireNested Parse.WireDesc.
From Coq Require Import ZArith Lia ZifyN ZifyBool.

Local Open Scope N_scope.

Inductive entry := EnEthernet | EnLinuxSll | EnEtherType (et : N) | EnIp.

Section Dispatch.
  Variable bs : bytes.
  Local Notation B := (B bs).
  Local Notation W := (W bs).

  Definition vlan_type (et : N) : Prop := et = 33024 \/ et = 34984 \/ et = 37120.
  Definition macsec_type (et : N) : Prop := et = 35045.
  Definition link_ext_type (et : N) : Prop := vlan_type et \/ macsec_type et.
  Definition net_type (et : N) : Prop := et = 2054 \/ et = 2048 \/ et = 34525.
  Definition tr_number (n : N) : Prop := n = 1 \/ n = 17 \/ n = 6 \/ n = 58.
  Definition ext_number (nh : N) : Prop := nh = 0 \/ nh = 43 \/ nh = 44 \/ nh = 51 \/ nh = 60.

  (* the ether type announced behind the link header; None = nothing decodable follows *)
  Definition first_type (e : entry) : option N :=
    match e with
    | EnEthernet => Some (W 12)
    | EnLinuxSll => if (W 2 =? 1) && negb (sll_nonstandard (W 14)) then Some (W 14) else None
    | EnEtherType et => Some et
    | EnIp => None
    end.

  Definition link_dispatch (e : entry) (l : option vlink) : Prop :=
    match e, l with
    | EnEthernet, Some (VEthernet2 _) => True
    | EnLinuxSll, Some (VLinuxSll _ _) => W 0 <= 7 /\ sll_hw_supported (W 2) = true
    | EnEtherType et, Some (VEtherPayload ep) => vep_type ep = et
    | EnIp, None => True
    | _, _ => False
    end.

  Definition ext_announces (x : vlink_ext) : option N :=
    match x with
    | VVlan w => Some (W (fst w + 2))
    | VMacsec h (VMpUnmodified _) => Some (W (fst h + snd h - 2))
    | VMacsec h (VMpModified _) => None
    end.

  Definition ext_kind (et : N) (x : vlink_ext) : Prop :=
    match x with
    | VVlan _ => vlan_type et
    | VMacsec _ _ => macsec_type et
    end.

  Definition ext_rules (x : vlink_ext) : Prop :=
    match x with
    | VVlan _ => True
    | VMacsec h _ =>
        B (fst h) < 128 /\ ~ ((B (fst h) / 4) mod 4 = 0 /\ B (fst h + 1) mod 64 = 1)
    end.

  Fixpoint exts_dispatch (ann : option N) (xs : list vlink_ext) : Prop :=
    match xs with
    | [] => True
    | x :: r =>
        match ann with
        | None => False
        | Some et => ext_kind et x /\ ext_rules x /\ exts_dispatch (ext_announces x) r
        end
    end.

  (* what is announced behind the last extension *)
  Fixpoint exts_announced (ann : option N) (xs : list vlink_ext) : option N :=
    match xs with
    | [] => ann
    | x :: r => exts_announced (ext_announces x) r
    end.

  Definition ipv4_rules (h : window) (auth : option window) : Prop :=
    let pos := fst h in
    B pos / 16 = 4 /\ 5 <= B pos mod 16 /\
    match auth with
    | Some a => B (pos + 9) = 51 /\ B (fst a + 1) <> 0
    | None => B (pos + 9) <> 51
    end.

  Definition ext_hdr_len (nh pos : N) : N :=
    if nh =? 44 then 8
    else if nh =? 51 then (B (pos + 1) + 2) * 4
    else (B (pos + 1) + 1) * 8.

  (* the extension window [pos, lim): tiled by extension headers, `nh` = number announced
     for the header at `pos`, `first` = it was announced by the IPv6 header itself *)
  Fixpoint chain_rules (fuel : nat) (first : bool) (nh pos lim : N) : Prop :=
    match fuel with
    | O => False
    | S f =>
        if lim <=? pos then pos = lim /\ ~ ext_number nh
        else
          ext_number nh /\ (nh = 0 -> first = true) /\ (nh = 51 -> B (pos + 1) <> 0) /\
          pos + ext_hdr_len nh pos <= lim /\
          chain_rules f false (B pos) (pos + ext_hdr_len nh pos) lim
    end.

  Definition ipv6_rules (h : window) (first : option N) (x : window) (p : vip_payload) : Prop :=
    let pos := fst h in
    B pos / 16 = 6 /\
    first = (if snd x =? 0 then None else Some (B (pos + 6))) /\
    chain_rules (S (N.to_nat (snd x))) true (B (pos + 6)) (fst x) (fst x + snd x) /\
    ~ ext_number (vip_number p).

  Definition net_rules (nn : vnet) : Prop :=
    match nn with
    | VArp _ => True
    | VIpv4 h a _ => ipv4_rules h a
    | VIpv6 h first _ x p => ipv6_rules h first x p
    end.

  Definition net_kind (et : N) (nn : vnet) : Prop :=
    match nn with
    | VArp _ => et = 2054
    | VIpv4 _ _ _ => et = 2048
    | VIpv6 _ _ _ _ _ => et = 34525
    end.

  Definition no_net_cause (ann : option N) (nexts : nat) : Prop :=
    match ann with
    | None => True
    | Some et => (link_ext_type et /\ nexts = 3%nat) \/ (~ link_ext_type et /\ ~ net_type et)
    end.

  Definition net_dispatch (ann : option N) (nexts : nat) (nn : option vnet) : Prop :=
    match nn with
    | Some n => (exists et, ann = Some et /\ net_kind et n) /\ net_rules n
    | None => no_net_cause ann nexts
    end.

  (* started at "an IP header": the version nibble selects, there is always a network layer *)
  Definition ip_dispatch (nn : option vnet) : Prop :=
    match nn with
    | Some (VIpv4 h a p) => ipv4_rules h a
    | Some (VIpv6 h first _ x p) => ipv6_rules h first x p
    | _ => False
    end.

  Definition tr_kind (n : N) (t : vtransport) : Prop :=
    match t with
    | VIcmpv4 w =>
        n = 1 /\ ((B (fst w) = 13 \/ B (fst w) = 14) -> B (fst w + 1) = 0 -> snd w = 20)
    | VUdp _ => n = 17
    | VTcp _ w => n = 6 /\ 5 <= B (fst w + 12) / 16
    | VIcmpv6 _ => n = 58
    end.

  Definition no_tr_cause (nn : option vnet) : Prop :=
    match net_payload nn with
    | None => True
    | Some p => vip_frag p = true \/ ~ tr_number (vip_number p)
    end.

  Definition tr_dispatch (nn : option vnet) (t : option vtransport) : Prop :=
    match t with
    | Some t =>
        match net_payload nn with
        | Some p => vip_frag p = false /\ tr_kind (vip_number p) t
        | None => False
        end
    | None => no_tr_cause nn
    end.

  Definition dispatch (e : entry) (v : vpacket) : Prop :=
    link_dispatch e (v_link v) /\
    (length (v_exts v) <= 3)%nat /\
    exts_dispatch (first_type e) (v_exts v) /\
    match e with
    | EnIp => ip_dispatch (v_net v)
    | _ => net_dispatch (exts_announced (first_type e) (v_exts v)) (length (v_exts v)) (v_net v)
    end /\
    tr_dispatch (v_net v) (v_transport v).

  Lemma net_type_not_link_ext et : net_type et -> ~ link_ext_type et.
  Proof. unfold net_type, link_ext_type, vlan_type, macsec_type. lia. Qed.

  Lemma net_kind_type et nn : net_kind et nn -> net_type et.
  Proof. unfold net_type. destruct nn; cbn [net_kind]; lia. Qed.

  Theorem dispatch_no_net_iff e v : dispatch e v -> e <> EnIp ->
    (v_net v = None <->
     no_net_cause (exts_announced (first_type e) (v_exts v)) (length (v_exts v))).
  Proof.
    intros (_ & _ & _ & Hn & _) He.
    assert (Hd : net_dispatch (exts_announced (first_type e) (v_exts v)) (length (v_exts v)) (v_net v)).
    { destruct e; try exact Hn. now elim He. }
    clear Hn. unfold net_dispatch in Hd.
    destruct (v_net v) as [nn|].
    - split; [discriminate|]. intros Hc. exfalso.
      destruct Hd as ((et & Ha & Hk) & _). rewrite Ha in Hc. cbn [no_net_cause] in Hc.
      pose proof (net_kind_type _ _ Hk) as Ht.
      destruct Hc as [(Hl & _)|(_ & Hnt)]; [exact (net_type_not_link_ext _ Ht Hl)|exact (Hnt Ht)].
    - split; [intros _; exact Hd|reflexivity].
  Qed.

  Theorem dispatch_ip_has_net v : dispatch EnIp v ->
    v_link v = None /\ v_exts v = [] /\ v_net v <> None.
  Proof.
    intros (Hl & _ & Hx & Hn & _). cbn [first_type link_dispatch] in *.
    split; [destruct (v_link v); [contradiction|reflexivity]|].
    split; [destruct (v_exts v); [reflexivity|contradiction]|].
    unfold ip_dispatch in Hn. destruct (v_net v); [discriminate|contradiction].
  Qed.

  Theorem dispatch_no_transport_iff e v : dispatch e v ->
    (v_transport v = None <-> no_tr_cause (v_net v)).
  Proof.
    intros (_ & _ & _ & _ & Ht). unfold tr_dispatch in Ht.
    destruct (v_transport v) as [t|].
    - split; [discriminate|]. intros Hc. exfalso. unfold no_tr_cause in Hc.
      destruct (net_payload (v_net v)) as [p|]; [|contradiction].
      destruct Ht as (Hf & Hk). destruct Hc as [Hc|Hc]; [congruence|].
      apply Hc. unfold tr_number. destruct t; cbn [tr_kind] in Hk; lia.
    - split; [intros _; exact Ht|reflexivity].
  Qed.

  (* the list of extensions stops only where the formats / the cap say so: what is announced
     behind the last one is nothing, or no link-extension type, or there are 3 already *)
  Theorem dispatch_exts_stop e v et : dispatch e v -> e <> EnIp ->
    exts_announced (first_type e) (v_exts v) = Some et -> link_ext_type et ->
    length (v_exts v) = 3%nat /\ v_net v = None.
  Proof.
    intros (_ & _ & _ & Hn & _) He Ha Hl.
    assert (Hd : net_dispatch (exts_announced (first_type e) (v_exts v)) (length (v_exts v)) (v_net v)).
    { destruct e; try exact Hn. now elim He. }
    clear Hn. rewrite Ha in Hd. unfold net_dispatch in Hd.
    destruct (v_net v) as [nn|].
    - exfalso. destruct Hd as ((et' & Hs & Hk) & _). injection Hs as <-.
      exact (net_type_not_link_ext _ (net_kind_type _ _ Hk) Hl).
    - cbn [no_net_cause] in Hd. destruct Hd as [(_ & H3)|(Hnl & _)]; [auto|contradiction].
  Qed.

  Lemma is_vlan_true et : is_vlan et = true -> vlan_type et.
  Proof. unfold is_vlan, vlan_type. lia. Qed.
  Lemma is_vlan_false et : is_vlan et = false -> ~ vlan_type et.
  Proof. unfold is_vlan, vlan_type. lia. Qed.

  Lemma exts_dispatch_app : forall xs ann x et,
    exts_dispatch ann xs -> exts_announced ann xs = Some et -> ext_kind et x -> ext_rules x ->
    exts_dispatch ann (xs ++ [x]) /\ exts_announced ann (xs ++ [x]) = ext_announces x.
  Proof.
    induction xs as [|y r IH]; intros ann x et; cbn [exts_dispatch exts_announced app].
    - intros _ -> Hk Hr. repeat split; auto.
    - destruct ann as [a|]; [|contradiction].
      intros (Hy1 & Hy2 & Hy3) Ha Hk Hr.
      destruct (IH _ _ _ Hy3 Ha Hk Hr) as (H1 & H2). repeat split; auto.
  Qed.

  (* transport: link, extensions and network layer untouched, transport dispatched *)
  Definition same_upto_net (p v : vpacket) (nn : vnet) : Prop :=
    v_link v = v_link p /\ v_exts v = v_exts p /\ v_net v = Some nn /\
    tr_dispatch (Some nn) (v_transport v).

  Lemma tr_at_kind ipn pos a t : tr_at bs ipn pos a t -> tr_kind ipn t.
  Proof.
    destruct t as [w|hl w|w|w]; cbn [tr_at tr_kind].
    - intros (-> & _). reflexivity.
    - intros (-> & -> & -> & H). cbn [fst]. split; [reflexivity|lia].
    - intros (-> & -> & _ & H). cbn [fst snd]. split; [reflexivity|exact H].
    - intros (-> & _). reflexivity.
  Qed.

  Lemma wire_transport_disp p nn ip ipn frag src pos lim v :
    v_transport p = None -> wire_transport bs (with_net p nn) ipn frag src pos lim = VOk v ->
    net_payload (Some nn) = Some ip -> vip_number ip = ipn -> vip_frag ip = frag ->
    same_upto_net p v nn.
  Proof.
    intros Htr Hw Hip <- <-. unfold same_upto_net, tr_dispatch, no_tr_cause. rewrite Hip.
    apply wire_transport_iff in Hw. destruct Hw as [(-> & Hc)|(Hf & t & -> & Ht)];
      cbn [with_tr with_net v_link v_exts v_net v_transport].
    - rewrite Htr. repeat split. exact Hc.
    - repeat split; [exact Hf|exact (tr_at_kind _ _ _ _ Ht)].
  Qed.

  (* what the network part of the decoder adds to p *)
  Definition net_post (p v : vpacket) (K : vnet -> Prop) : Prop :=
    exists nn, same_upto_net p v nn /\ K nn /\ net_rules nn.

  Definition is_v4 (nn : vnet) : Prop := match nn with VIpv4 _ _ _ => True | _ => False end.
  Definition is_v6 (nn : vnet) : Prop := match nn with VIpv6 _ _ _ _ _ => True | _ => False end.
  Definition is_arp (nn : vnet) : Prop := match nn with VArp _ => True | _ => False end.

  Lemma wire_ipv4_body_disp p src pos lim hl v :
    v_transport p = None -> B pos / 16 = 4 -> 5 <= B pos mod 16 ->
    wire_ipv4_body bs p src pos lim hl = VOk v -> net_post p v is_v4.
  Proof.
    intros Htr Hv Hi Hw. apply wire_ipv4_body_iff in Hw. destruct Hw as (_ & auth & ppos & next & Ha & Hw).
    eexists. split; [exact (wire_transport_disp _ _ _ _ _ _ _ _ _ Htr Hw eq_refl eq_refl eq_refl)|].
    split; [exact I|]. cbn [net_rules]. unfold ipv4_rules. cbn [fst]. cbv zeta.
    split; [exact Hv|]. split; [exact Hi|]. destruct auth as [a|]; cbn [ipv4_auth] in Ha.
    - destruct Ha as (E & -> & Hz & _). cbn [fst]. auto.
    - apply Ha.
  Qed.

  Lemma wire_ipv4_disp p src pos lim v :
    v_transport p = None -> wire_ipv4 bs p src pos lim = VOk v -> net_post p v is_v4.
  Proof.
    intros Htr Hw. apply wire_ipv4_iff in Hw. destruct Hw as (Hv & Hi & _ & Hw).
    exact (wire_ipv4_body_disp _ _ _ _ _ _ Htr Hv Hi Hw).
  Qed.

  Lemma ext_hdr_len_raw nh pos : (nh =? 60) || (nh =? 43) = true \/ nh = 0 ->
    ext_hdr_len nh pos = (B (pos + 1) + 1) * 8.
  Proof.
    intros H. unfold ext_hdr_len.
    destruct (N.eqb_spec nh 44); [lia|]. destruct (N.eqb_spec nh 51); [lia|]. reflexivity.
  Qed.

  (* `chain_hdr` in the vocabulary of `chain_rules` and `chain_end` *)
  Lemma chain_hdr_iff first nh pos l frag frag' :
    chain_hdr bs first nh pos l frag frag' <->
    ext_number nh /\ (nh = 0 -> first = true) /\ (nh = 51 -> B (pos + 1) <> 0) /\
    l = ext_hdr_len nh pos /\
    frag' = (if nh =? 44 then frag || frag_hdr_fragments bs pos else frag).
  Proof.
    unfold chain_hdr, ext_number, ext_hdr_len, frag_hdr_fragments. split.
    - intros [(Hn & -> & ->)|[(-> & -> & ->)|(-> & -> & Hz & ->)]]; [|repeat split; lia..].
      destruct (N.eqb_spec nh 44); [lia|]. destruct (N.eqb_spec nh 51); [lia|]. repeat split; lia.
    - intros (Hx & Hf & Hz & -> & ->).
      destruct (N.eqb_spec nh 44) as [->|N44]; [right; left; repeat split|].
      destruct (N.eqb_spec nh 51) as [->|N51]; [right; right; repeat split; auto|].
      left. repeat split. lia.
  Qed.

  (* `first` only matters for number 0 *)
  Lemma chain_rules_first a b f nh pos e :
    nh <> 0 -> chain_rules f a nh pos e -> chain_rules f b nh pos e.
  Proof.
    intros N0. destruct f as [|f]; cbn [chain_rules]; [auto|].
    destruct (e <=? pos); [auto|]. intros (H1 & _ & H3). split; [exact H1|].
    split; [intros; contradiction|exact H3].
  Qed.

  Lemma chain_rules_hdr first f nh pos e l frag frag' :
    chain_hdr bs first nh pos l frag frag' -> pos + l <= e ->
    chain_rules f false (B pos) (pos + l) e -> chain_rules (S f) first nh pos e.
  Proof.
    intros Hh He Hr. pose proof (chain_hdr_len _ _ _ _ _ _ _ Hh) as H8.
    destruct (proj1 (chain_hdr_iff _ _ _ _ _ _) Hh) as (H1 & H2 & H3 & -> & _).
    cbn [chain_rules]. destruct (N.leb_spec e pos); [lia|]. auto.
  Qed.

  Lemma wire_chain_rules : forall fuel src pos lim nh frag e next fr,
    pos <= lim -> wire_chain bs fuel src pos lim nh frag = ChOk e next fr ->
    ~ ext_number next /\
    forall fuel2, (N.to_nat (e - pos) < fuel2)%nat -> chain_rules fuel2 false nh pos e.
  Proof.
    induction fuel as [|f IH]; intros src pos lim nh frag e next fr Hle Hc; [discriminate|].
    apply wire_chain_iff in Hc. destruct Hc as [(Hn & -> & -> & ->)|(l & frag' & Hh & Hl & Hc)].
    - split; [exact Hn|]. intros [|f2] Hf; [lia|]. cbn [chain_rules]. rewrite N.leb_refl. auto.
    - pose proof (chain_hdr_len _ _ _ _ _ _ _ Hh) as H8.
      assert (Hle' : pos + l <= lim) by lia.
      destruct (wire_chain_bounds _ _ _ _ _ _ _ _ _ _ Hle' Hc) as (Hb & _).
      destruct (IH _ _ _ _ _ _ _ _ Hle' Hc) as (Hn & Hr). split; [exact Hn|].
      intros [|f2] Hf; [lia|]. apply (chain_rules_hdr _ _ _ _ _ _ _ _ Hh Hb). apply Hr. lia.
  Qed.

  Lemma wire_exts_rules fuel src pos lim nh e next fr :
    pos <= lim -> wire_exts bs fuel src pos lim nh = ChOk e next fr ->
    ~ ext_number next /\
    forall fuel2, (N.to_nat (e - pos) < fuel2)%nat -> chain_rules fuel2 true nh pos e.
  Proof.
    intros Hle Hc. apply wire_exts_iff in Hc. destruct Hc as [(-> & Hl & Hc)|(N0 & Hc)].
    - assert (Hle' : pos + (B (pos + 1) + 1) * 8 <= lim) by lia.
      destruct (wire_chain_bounds _ _ _ _ _ _ _ _ _ _ Hle' Hc) as (Hb & _).
      destruct (wire_chain_rules _ _ _ _ _ _ _ _ _ Hle' Hc) as (Hn & Hr). split; [exact Hn|].
      intros [|f2] Hf; [lia|].
      apply (chain_rules_hdr true _ 0 pos e ((B (pos + 1) + 1) * 8) false false);
        [left; auto|exact Hb|apply Hr; lia].
    - destruct (wire_chain_rules _ _ _ _ _ _ _ _ _ Hle Hc) as (Hn & Hr). split; [exact Hn|].
      intros f2 Hf. exact (chain_rules_first false true _ _ _ _ N0 (Hr f2 Hf)).
  Qed.

  Lemma wire_ipv6_tail_disp p esrc psrc pos lim' v :
    v_transport p = None -> pos + 40 <= lim' -> B pos / 16 = 6 ->
    wire_ipv6_tail bs p esrc psrc pos lim' = VOk v -> net_post p v is_v6.
  Proof.
    intros Htr H40 Hv Hw. apply wire_ipv6_tail_iff in Hw. destruct Hw as (e & next & frag & Hc & Hw).
    destruct (wire_exts_bounds _ _ _ _ _ _ _ _ _ H40 Hc) as (He1 & He2).
    destruct (wire_exts_rules _ _ _ _ _ _ _ _ H40 Hc) as (Hn & Hr).
    eexists. split; [exact (wire_transport_disp _ _ _ _ _ _ _ _ _ Htr Hw eq_refl eq_refl eq_refl)|].
    split; [exact I|]. cbn [net_rules]. unfold ipv6_rules. cbn [fst snd vip_number]. cbv zeta.
    split; [exact Hv|]. split.
    { destruct (N.eqb_spec e (pos + 40)); destruct (N.eqb_spec (e - (pos + 40)) 0); try reflexivity; lia. }
    split; [|exact Hn].
    replace (pos + 40 + (e - (pos + 40))) with e by lia. apply Hr. lia.
  Qed.

  Lemma wire_ipv6_body_disp p src pos lim v :
    v_transport p = None -> B pos / 16 = 6 ->
    wire_ipv6_body bs p src pos lim = VOk v -> net_post p v is_v6.
  Proof.
    intros Htr Hv Hw. apply wire_ipv6_body_iff in Hw.
    destruct Hw as [(_ & H40 & Hw)|(_ & H40 & Hw)]; revert Hw; apply wire_ipv6_tail_disp; auto; lia.
  Qed.

  Lemma wire_ipv6_disp p src pos lim v :
    v_transport p = None -> wire_ipv6 bs p src pos lim = VOk v -> net_post p v is_v6.
  Proof.
    intros Htr Hw. apply wire_ipv6_iff in Hw. destruct Hw as (_ & Hv & Hw).
    exact (wire_ipv6_body_disp _ _ _ _ _ Htr Hv Hw).
  Qed.

  Lemma wire_ip_disp p src pos lim v :
    v_transport p = None -> wire_ip bs p src pos lim = VOk v ->
    net_post p v is_v4 \/ net_post p v is_v6.
  Proof.
    intros Htr Hw. apply wire_ip_iff in Hw.
    destruct Hw as [Hw|Hw]; [left; exact (wire_ipv4_disp _ _ _ _ _ Htr Hw)|right; exact (wire_ipv6_disp _ _ _ _ _ Htr Hw)].
  Qed.

  (* the network step behind an announced ether type that is no link-extension type *)
  Definition net_step (p v : vpacket) (et : N) : Prop :=
    v_link v = v_link p /\ v_exts v = v_exts p /\
    match v_net v with
    | Some nn => net_kind et nn /\ net_rules nn
    | None => ~ net_type et
    end /\
    tr_dispatch (v_net v) (v_transport v).

  Lemma net_post_step p v et (K : vnet -> Prop) :
    net_post p v K -> (forall nn, K nn -> net_kind et nn) -> net_step p v et.
  Proof.
    intros (nn & (H1 & H2 & H3 & H4) & Hk & Hr) HK. unfold net_step. rewrite H3.
    repeat split; auto.
  Qed.

  Lemma wire_net_disp p et src pos lim v :
    v_net p = None -> v_transport p = None ->
    wire_net bs p et src pos lim = VOk v -> net_step p v et.
  Proof.
    intros Hnp Htr Hw. apply wire_net_iff in Hw. destruct Hw as [(-> & Hw)|[(-> & Hw)|[(-> & Hw)|(Hn & ->)]]].
    - apply wire_arp_iff in Hw. destruct Hw as (_ & ->). unfold net_step.
      cbn [with_net v_link v_exts v_net v_transport net_kind net_rules]. rewrite Htr. repeat split; auto.
    - apply (net_post_step _ _ _ _ (wire_ipv4_disp _ _ _ _ _ Htr Hw)). intros [| |]; cbn; auto; contradiction.
    - apply (net_post_step _ _ _ _ (wire_ipv6_disp _ _ _ _ _ Htr Hw)). intros [| |]; cbn; auto; contradiction.
    - unfold net_step. rewrite Hnp, Htr. repeat split; auto.
  Qed.

  (* state of the walk in front of an announced ether type: cap = extensions still allowed *)
  Definition dpre (e : entry) (cap : nat) (p : vpacket) (et : N) : Prop :=
    e <> EnIp /\ link_dispatch e (v_link p) /\ (length (v_exts p) + cap = 3)%nat /\
    exts_dispatch (first_type e) (v_exts p) /\
    exts_announced (first_type e) (v_exts p) = Some et /\
    v_net p = None /\ v_transport p = None.

  Lemma dispatch_of_stop e cap p et :
    dpre e cap p et -> (link_ext_type et /\ cap = O) \/ (~ link_ext_type et /\ ~ net_type et) ->
    dispatch e p.
  Proof.
    intros (He & Hl & Hc & Hx & Ha & Hn & Ht) Hs. unfold dispatch.
    split; [exact Hl|]. split; [lia|]. split; [exact Hx|]. split.
    - assert (Hd : net_dispatch (exts_announced (first_type e) (v_exts p)) (length (v_exts p)) (v_net p)).
      { rewrite Hn, Ha. cbn [net_dispatch no_net_cause].
        destruct Hs as [(H1 & H2)|H]; [left; split; [exact H1|lia]|right; exact H]. }
      destruct e; try exact Hd. now elim He.
    - rewrite Hn, Ht. exact I.
  Qed.

  Lemma dispatch_of_modified e cap p et x :
    dpre e (S cap) p et -> ext_kind et x -> ext_rules x -> ext_announces x = None ->
    dispatch e (with_ext p x).
  Proof.
    intros (He & Hl & Hc & Hx & Ha & Hn & Ht) Hk Hr Hno. unfold dispatch, with_ext.
    cbn [v_link v_exts v_net v_transport].
    destruct (exts_dispatch_app _ _ _ _ Hx Ha Hk Hr) as (H1 & H2).
    split; [exact Hl|]. split; [rewrite app_length; cbn [length]; lia|]. split; [exact H1|]. split.
    - assert (Hd : net_dispatch (exts_announced (first_type e) (v_exts p ++ [x]))
                     (length (v_exts p ++ [x])) (v_net p)).
      { rewrite Hn, H2, Hno. exact I. }
      destruct e; try exact Hd. now elim He.
    - rewrite Hn, Ht. exact I.
  Qed.

  Lemma dpre_with_ext e cap p et x et' :
    dpre e (S cap) p et -> ext_kind et x -> ext_rules x -> ext_announces x = Some et' ->
    dpre e cap (with_ext p x) et'.
  Proof.
    intros (He & Hl & Hc & Hx & Ha & Hn & Ht) Hk Hr Han. unfold dpre, with_ext.
    cbn [v_link v_exts v_net v_transport].
    destruct (exts_dispatch_app _ _ _ _ Hx Ha Hk Hr) as (H1 & H2).
    split; [exact He|]. split; [exact Hl|]. split; [rewrite app_length; cbn [length]; lia|].
    split; [exact H1|]. split; [rewrite H2; exact Han|]. split; [exact Hn|exact Ht].
  Qed.

  Lemma dispatch_of_net e cap p et v :
    dpre e cap p et -> ~ link_ext_type et -> net_step p v et -> dispatch e v.
  Proof.
    intros (He & Hl & Hc & Hx & Ha & Hn & Ht) Hnl (H1 & H2 & H3 & H4). unfold dispatch.
    rewrite H1, H2.
    split; [exact Hl|]. split; [lia|]. split; [exact Hx|]. split; [|exact H4].
    assert (Hd : net_dispatch (exts_announced (first_type e) (v_exts p)) (length (v_exts p)) (v_net v)).
    { rewrite Ha. unfold net_dispatch. destruct (v_net v) as [nn|].
      - destruct H3 as (Hk & Hr). split; [exists et; auto|exact Hr].
      - cbn [no_net_cause]. right. auto. }
    destruct e; try exact Hd. now elim He.
  Qed.

  Lemma wire_ether_dispatch e : forall cap p et src pos lim v,
    dpre e cap p et -> wire_ether bs cap p et src pos lim = VOk v -> dispatch e v.
  Proof.
    induction cap as [|c IH]; intros p et src pos lim v Hp Hw;
      destruct (link_ext_cases et) as [Hv|[->|(Hx & Hm)]];
      try (rewrite (wire_ether_net bs _ _ _ _ _ _ Hx Hm) in Hw;
           apply (dispatch_of_net e _ p et v Hp);
           [intros [Hl|Hl]; [exact (is_vlan_false _ Hx Hl)|exact (Hm Hl)]|];
           destruct Hp as (_ & _ & _ & _ & _ & Hn & Ht); exact (wire_net_disp _ _ _ _ _ _ Hn Ht Hw)).
    - rewrite wire_ether_stop in Hw by (left; exact Hv). injection Hw as <-.
      apply (dispatch_of_stop e O p et Hp). left. split; [left; now apply is_vlan_true|reflexivity].
    - rewrite wire_ether_stop in Hw by (right; reflexivity). injection Hw as <-.
      apply (dispatch_of_stop e O p _ Hp). left. split; [right; reflexivity|reflexivity].
    - apply (wire_ether_vlan bs _ _ _ _ _ _ _ Hv) in Hw. destruct Hw as (_ & Hw). revert Hw. apply IH.
      apply (dpre_with_ext e c p et _ _ Hp); [exact (is_vlan_true _ Hv)|exact I|reflexivity].
    - apply wire_ether_macsec in Hw. cbv zeta in Hw. destruct Hw as (H128 & Hsl & _ & _ & Hw).
      assert (Hr : forall pl, ext_rules (VMacsec (pos, macsec_hl (B pos)) pl)) by (intros pl; split; assumption).
      destruct ((B pos / 4) mod 4 =? 0).
      + revert Hw. apply IH. apply (dpre_with_ext e c p _ _ _ Hp); [reflexivity|apply Hr|reflexivity].
      + subst v. apply (dispatch_of_modified e c p _ _ Hp); [reflexivity|apply Hr|reflexivity].
  Qed.

  Theorem wire_ethernet_dispatch v : wire_ethernet bs = VOk v -> dispatch EnEthernet v.
  Proof.
    unfold wire_ethernet. destruct (n_bs bs <? 14); [discriminate|].
    apply wire_ether_dispatch. unfold dpre.
    cbn [v_link v_exts v_net v_transport link_dispatch exts_dispatch exts_announced first_type length].
    repeat split; try discriminate.
  Qed.

  Theorem wire_linux_sll_dispatch v : wire_linux_sll bs = VOk v -> dispatch EnLinuxSll v.
  Proof.
    unfold wire_linux_sll. cbv zeta. destruct (n_bs bs <? 16); [discriminate|].
    destruct (7 <? W 0) eqn:E1; [discriminate|].
    destruct (sll_hw_supported (W 2)) eqn:E2; cbn [negb]; [|discriminate].
    destruct ((W 2 =? 1) && negb (sll_nonstandard (W 14))) eqn:E3.
    - apply wire_ether_dispatch. unfold dpre.
      cbn [v_link v_exts v_net v_transport link_dispatch exts_dispatch exts_announced first_type length].
      rewrite E3. repeat split; try discriminate; try lia.
    - intros H. injection H as <-. unfold dispatch.
      cbn [v_link v_exts v_net v_transport link_dispatch exts_dispatch exts_announced first_type length
           net_dispatch tr_dispatch].
      rewrite E3. cbn [no_net_cause]. repeat split; try lia.
  Qed.

  Theorem wire_ether_type_dispatch et v : wire_ether_type bs et = VOk v -> dispatch (EnEtherType et) v.
  Proof.
    unfold wire_ether_type. apply wire_ether_dispatch. unfold dpre.
    cbn [v_link v_exts v_net v_transport link_dispatch exts_dispatch exts_announced first_type length
         vep_type].
    repeat split; try discriminate.
  Qed.

  Theorem wire_from_ip_dispatch v : wire_from_ip bs = VOk v -> dispatch EnIp v.
  Proof.
    unfold wire_from_ip, empty_packet. intros H.
    apply wire_ip_disp in H; [|reflexivity]. unfold dispatch.
    assert (G : forall K : vnet -> Prop, (forall nn, K nn -> net_rules nn -> ip_dispatch (Some nn)) ->
                net_post (mkVPacket None [] None None) v K ->
                link_dispatch EnIp (v_link v) /\ (length (v_exts v) <= 3)%nat /\
                exts_dispatch (first_type EnIp) (v_exts v) /\ ip_dispatch (v_net v) /\
                tr_dispatch (v_net v) (v_transport v)).
    { intros K HK (nn & (H1 & H2 & H3 & H4) & Hk & Hr).
      cbn [v_link v_exts] in H1, H2. rewrite H1, H2, H3.
      cbn [link_dispatch length exts_dispatch]. repeat split; auto. }
    destruct H as [H|H]; revert H; apply G.
    - intros [| |]; cbn; auto; contradiction.
    - intros [| |]; cbn; auto; contradiction.
  Qed.
End Dispatch.

Theorem wire_dispatch bs et v :
  (wire_ethernet bs = VOk v -> dispatch bs EnEthernet v) /\
  (wire_linux_sll bs = VOk v -> dispatch bs EnLinuxSll v) /\
  (wire_ether_type bs et = VOk v -> dispatch bs (EnEtherType et) v) /\
  (wire_from_ip bs = VOk v -> dispatch bs EnIp v).
Proof.
  split; [|split; [|split]];
    [apply wire_ethernet_dispatch|apply wire_linux_sll_dispatch|apply wire_ether_type_dispatch
    |apply wire_from_ip_dispatch].
Qed.
