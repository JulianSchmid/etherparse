(* Parse/StoredIter.v -- the compositions "stored slice -> iterator":

     TcpSlice::options_iterator / TcpHeaderSlice::options_iterator
        = TcpOptionsIterator::from_slice(self.options())          (transport/tcp_slice.rs,
          transport/tcp_header_slice.rs; iterator model: TcpOpt/Model.v `iterate`)
     Icmpv6Slice::payload_slice
        = Icmpv6PayloadSlice::from_type_u8(self.type_u8(), self.code_u8(), self.payload())
          (transport/icmpv6_slice.rs; model of the enum constructor, of the accessors of the
          typed payload slices and of NdpOptionsIterator: CtlMsg/Model.v)

   C13 / C17 speak about ARBITRARY byte areas.  Here the area is the window an accepted
   TcpSlice / TcpHeaderSlice / Icmpv6Slice STORES (single-layer constructor on any slice value,
   and the transport slice of every strict or lax whole-packet result): the window accessor
   returns (no Bug), the window lies inside the slice / the input, the iteration over its
   contents returns (no OOB / Panic / UB / fuel), yields no more items than the window has
   bytes (TCP) resp. 8-byte units (NDP), makes progress, and every iterator state is a tail
   window of the stored window.  Only `icmpv6_payload_slice` is new text (three accessor calls
   of Parse/Access.v + the enum constructor of CtlMsg/Model.v); everything else composes
   existing models and theorems. *)
From EP Require Import Base.Bytes Base.Lists Parse.Types Parse.Slices Parse.Cursor Parse.Repr Parse.Access
  Parse.AccessProofs Parse.ProvFacts Parse.LaxSlices Parse.LaxCursor Parse.LaxAccess Parse.LaxAccessPacket.
From EP Require TcpOpt.Spec TcpOpt.Model TcpOpt.Proofs CtlMsg.Spec CtlMsg.Model CtlMsg.Proofs
  Parse.CtorsTotal2.
From Coq Require Import ZArith Lia ZifyN ZifyBool List.
Import ListNotations.

Local Open Scope N_scope.

Module TO := EP.TcpOpt.Model.
Module TOP := EP.TcpOpt.Proofs.
Module C6 := EP.CtlMsg.Model.
Module C6S := EP.CtlMsg.Spec.
Module C6P := EP.CtlMsg.Proofs.
Module P6 := EP.CtlMsg.Model.Icmpv6PayloadSlice.

(* what C01_windows_inside says of a returned slice *)
Definition in_window (bs : bytes) (w : slice) : Prop :=
  s_off w + s_len w <= len bs /\ snd w = take (s_len w) (drop (s_off w) bs).

Lemma in_buf_in_window bs w : in_buf bs w -> in_window bs w.
Proof. exact (in_buf_window bs w). Qed.

(* r is what remains of area after some prefix *)
Definition tail_of (r area : bytes) : Prop := exists pre, area = pre ++ r.

Lemma tail_of_trans a b c : tail_of a b -> tail_of b c -> tail_of a c.
Proof. intros (p & ->) (q & ->). exists (q ++ p). now rewrite app_assoc. Qed.

Lemma tail_of_drop n (l : bytes) : tail_of (drop n l) l.
Proof. exists (take n l). symmetry. apply take_drop. Qed.

Lemma tail_of_refl (l : bytes) : tail_of l l.
Proof. now exists []. Qed.

(* a tail of the contents of o is the from_raw_parts window  o[k ..]  *)
Definition tail_window (o : slice) (r : bytes) : Prop :=
  exists k, k <= s_len o /\ subU o k (s_len o - k) = Ok (s_off o + k, r).

Lemma tail_is_window o r : tail_of r (snd o) -> tail_window o r.
Proof.
  destruct o as (p, a). cbn [snd]. intros (pre & ->). exists (len pre).
  unfold s_len, s_off. cbn [fst snd]. rewrite len_app. split; [lia|].
  replace (len pre + len r - len pre) with (len r) by lia.
  unfold subU, s_len. cbn [fst snd]. rewrite len_app.
  destruct (len pre + len r <=? len pre + len r) eqn:C; [|lia].
  rewrite drop_app_exact, take_len. reflexivity.
Qed.

Lemma tail_window_in bs o r :
  in_buf bs o -> tail_window o r -> exists k, k <= s_len o /\ in_window bs (s_off o + k, r).
Proof.
  intros I (k & Lk & Ek). exists k. split; [exact Lk|]. apply in_buf_in_window.
  eapply sub_of_in_buf; [exact I|]. now exists k, (s_len o - k).
Qed.

Lemma tail_window_sub o r : tail_window o r -> exists k, sub_of (s_off o + k, r) o.
Proof. intros (k & _ & E). exists k. now exists k, (s_len o - k). Qed.

Lemma trace_tails area tr fin :
  TOP.trace_rel area tr fin -> bytes_ok area -> Forall (fun ir => tail_of (snd ir) area) tr.
Proof.
  induction 1 as [bs Hs | bs e0 r0 tr fin Hn Ht IH | bs e0 Hn]; intros Hok.
  - constructor.
  - apply TOP.next_rel_ok_inv in Hn. destruct Hn as (_ & _ & Hw). destruct (Hw Hok) as (E & _).
    assert (T0 : tail_of r0 bs) by (eexists; exact E).
    assert (Hr : bytes_ok r0).
    { rewrite E in Hok. apply bytes_ok_app in Hok. tauto. }
    constructor; [exact T0|].
    eapply Forall_impl; [|exact (IH Hr)]. intros ir T. cbn beta in *. eapply tail_of_trans; eauto.
  - constructor; [|constructor]. cbn [snd]. exists bs. now rewrite app_nil_r.
Qed.

(* iterating the TcpOptionsIterator built over the window o: the run returns (no OOB read, no
   panic, no fuel), at most one item per byte, the final state and every further call are
   exhausted, every Ok item shrinks the state, and every state is a tail window of o *)
Definition tcp_iter_ok (o : slice) : Prop :=
  exists tr fin,
    TO.iterate (snd o) = TO.Ret (tr, fin) /\
    (length tr <= length (snd o))%nat /\
    fin = [] /\ (forall n, TO.next_n n fin = TO.Ret (repeat None n, [])) /\
    (forall pre e r post, tr = pre ++ (TO.Ok e, r) :: post -> len r < len (TO.last_rest (snd o) pre)) /\
    (bytes_ok (snd o) -> Forall (fun ir => tail_window o (snd ir)) tr).

Lemma tcp_iter_total o : tcp_iter_ok o.
Proof.
  destruct (TOP.c13_bounded (snd o)) as (tr & fin & E & B1 & B2).
  destruct TOP.c13_exhausted as (_ & X). destruct (X _ _ _ E) as (F1 & F2 & _).
  exists tr, fin. split; [exact E|]. split; [exact B1|]. split; [exact F1|]. split; [exact F2|].
  split; [exact B2|]. intros Hok.
  pose proof (trace_tails _ _ _ (TOP.iterate_rel _ _ _ E) Hok) as T.
  eapply Forall_impl; [|exact T]. intros ir Ti. now apply tail_is_window.
Qed.

(* the options window of an accepted TcpSlice: &self.slice[20..header_len] *)
Lemma tcp_options_window x :
  wf_tcp x ->
  exists o, TcpSliceA.options x = Ok o /\ sub_of o (snd x) /\
            s_off o = s_off (snd x) + 20 /\ s_len o = fst x - 20 /\ s_len o <= 40.
Proof.
  intros (L1 & L2 & L3). unfold TcpSliceA.options.
  rewrite (idx_range_subU (snd x) 20 (fst x)) by lia.
  destruct (subU_ok (snd x) 20 (fst x - 20)) as (o & E & Lo & Oo); [lia|].
  exists o. split; [exact E|]. split; [now exists 20, (fst x - 20)|]. split; [exact Oo|]. split; [exact Lo|lia].
Qed.

(* the options window of an accepted TcpHeaderSlice: &self.slice[20..data_offset()*4] *)
Lemma tcph_options_window h :
  wf_tcph h ->
  exists o, TcpHeaderSliceA.options h = Ok o /\ sub_of o h /\
            s_off o = s_off h + 20 /\ s_len o = s_len h - 20 /\ s_len o <= 40.
Proof.
  intros (L1 & L2 & b & E12 & Lb). unfold TcpHeaderSliceA.options, TcpFieldsA.data_offset.
  rewrite E12. cbn [bind]. pose proof (tcp_do_hl b) as D. rewrite D, <- Lb.
  rewrite (idx_range_subU h 20 (s_len h)) by lia.
  destruct (subU_ok h 20 (s_len h - 20)) as (o & E & Lo & Oo); [lia|].
  exists o. split; [exact E|]. split; [now exists 20, (s_len h - 20)|]. split; [exact Oo|]. split; [exact Lo|lia].
Qed.

(* Icmpv6Slice::payload_slice: the payload window and the enum constructor run on its contents
   (the typed payload slice stores exactly that window) *)
Definition icmpv6_payload_slice (s : slice) : res (slice * C6S.res P6.t) :=
  let* t := Icmpv6A.type_u8 s in
  let* c := Icmpv6A.code_u8 s in
  let* p := Icmpv6A.payload s in
  Ok (p, P6.from_type_u8 t c (snd p)).

(* the options() area of a typed payload slice, as listed in its view *)
Definition pview_options (v : C6S.pview) : option bytes :=
  match v with
  | C6S.PvWhole _ _ => None
  | C6S.PvRouterSolicitation o => Some o
  | C6S.PvRouterAdvertisement _ _ o => Some o
  | C6S.PvNeighborSolicitation _ o => Some o
  | C6S.PvNeighborAdvertisement _ o => Some o
  | C6S.PvRedirect _ _ o => Some o
  end.

(* running NdpOptionsIterator over the area: returns within length+1 calls of next, no UB item,
   every accepted option's accessors return, at most one accepted option per 8 bytes, and the
   accepted option slices tile a prefix of the area *)
Definition ndp_iter_ok (opts : bytes) : Prop :=
  exists items,
    C6.Ndp.collect (S (length opts)) opts = Some items /\
    Forall (fun i => match i with
                     | C6S.IOk k s => exists v, C6.Ndp.opt_accessors k s = C6S.Ok v
                     | C6S.IErr _ => True
                     | C6S.IUB _ => False
                     end) items /\
    C6S.ok_count items <= len opts / 8 /\
    exists rest, opts = C6S.ok_bytes items ++ rest.

Lemma ndp_iter_total opts : ndp_iter_ok opts.
Proof.
  destruct (C6P.ndp_options_full opts) as (items & Ec & _ & _ & (rest & Er & _) & Fa & Cn).
  exists items. split; [exact Ec|]. split.
  - eapply Forall_impl; [|exact Fa]. intros [k s|e|n]; [intros (_ & A); eauto|auto|auto].
  - split; [exact Cn|]. exists rest. exact Er.
Qed.

(* what is known about the value payload_slice returns for the payload window pw *)
Definition payload_slice_ok (pw : slice) (r : C6S.res P6.t) : Prop :=
  (forall n, r <> C6S.UB n) /\
  (forall ps, r = C6S.Ok ps ->
     snd ps = snd pw /\
     exists view, P6.accessors ps = C6S.Ok view /\
       forall opts, pview_options view = Some opts -> tail_window pw opts /\ ndp_iter_ok opts).

Lemma from_type_u8_ok t c pw : payload_slice_ok pw (P6.from_type_u8 t c (snd pw)).
Proof.
  destruct (CtorsTotal2.payload_from_type_u8_ctor t c (snd pw)) as (k & ->).
  destruct (CtorsTotal2.payload_ctor_total k (snd pw)) as (NU & T).
  split; [exact NU|]. intros ps Eps. destruct (T ps Eps) as (-> & Lk & Ea). cbn [snd].
  split; [reflexivity|]. eexists. split; [exact Ea|].
  intros opts Ho. split; [|apply ndp_iter_total]. apply tail_is_window.
  destruct k; cbn [C6S.ndp_payload_view pview_options] in Ho; try discriminate;
    injection Ho as <-; first [apply tail_of_drop | apply tail_of_refl].
Qed.

Lemma icmp6_payload_slice_ok s :
  wf_icmp6 s ->
  exists t c pw,
    icmpv6_payload_slice s = Ok (pw, P6.from_type_u8 t c (snd pw)) /\
    rdU s 0 = Ok t /\ rdU s 1 = Ok c /\ Icmpv6A.payload s = Ok pw /\
    sub_of pw s /\ s_off pw = s_off s + 8 /\ s_len pw = s_len s - 8 /\
    payload_slice_ok pw (P6.from_type_u8 t c (snd pw)).
Proof.
  unfold wf_icmp6. intros L.
  destruct (rdU_ok s 0) as (t & Et); [lia|]. destruct (rdU_ok s 1) as (c & Ec); [lia|].
  destruct (subU_ok s 8 (s_len s - 8)) as (pw & Ep & Lp & Op); [lia|].
  assert (Epl : Icmpv6A.payload s = Ok pw).
  { unfold Icmpv6A.payload. rewrite (subN_okr (s_len s) 8) by lia. cbn [bind]. exact Ep. }
  exists t, c, pw. split.
  { unfold icmpv6_payload_slice, Icmpv6A.type_u8, Icmpv6A.code_u8. rewrite Et. cbn [bind].
    rewrite Ec. cbn [bind]. rewrite Epl. reflexivity. }
  split; [exact Et|]. split; [exact Ec|]. split; [exact Epl|].
  split; [now exists 8, (s_len s - 8)|]. split; [exact Op|]. split; [exact Lp|].
  apply from_type_u8_ok.
Qed.

(* single layers: EVERY slice value s and every value a constructor returns for it *)
Theorem stored_iter_single_layer :
  (forall s x, TcpSlice.from_slice s = Ok x ->
     exists o, TcpSliceA.options x = Ok o /\ sub_of o s /\ s_len o = fst x - 20 /\ s_len o <= 40 /\
               tcp_iter_ok o) /\
  (forall s h, TcpHeaderSliceA.from_slice s = Ok h ->
     exists o, TcpHeaderSliceA.options h = Ok o /\ sub_of o s /\ s_len o = s_len h - 20 /\ s_len o <= 40 /\
               tcp_iter_ok o) /\
  (forall s v, Icmpv6Slice.from_slice s = Ok v ->
     exists t c pw,
       icmpv6_payload_slice v = Ok (pw, P6.from_type_u8 t c (snd pw)) /\
       sub_of pw s /\ s_len pw = s_len s - 8 /\
       payload_slice_ok pw (P6.from_type_u8 t c (snd pw))).
Proof.
  repeat match goal with |- _ /\ _ => split end.
  - intros s x H. apply tcp_wf in H. destruct H as (W & <-).
    destruct (tcp_options_window x W) as (o & E & S & _ & Lo & L40).
    exists o. repeat (split; [assumption|]). apply tcp_iter_total.
  - intros s h H. apply tcph_wf in H. destruct H as (W & Sh).
    destruct (tcph_options_window h W) as (o & E & S & _ & Lo & L40).
    exists o. split; [exact E|]. split; [eapply sub_of_trans; eauto|]. split; [exact Lo|]. split; [exact L40|].
    apply tcp_iter_total.
  - intros s v H. apply icmp6_wf in H. destruct H as (-> & W).
    destruct (icmp6_payload_slice_ok s W) as (t & c & pw & E & _ & _ & _ & S & _ & Lp & P).
    exists t, c, pw. auto.
Qed.

(* whole packets: the transport slice stored in a strict or lax whole-packet result *)
Definition stored_transport (bs : bytes) (t : transport_slice) : Prop :=
  (exists et p, entry bs et p /\ sp_transport p = Some t) \/
  (exists et p, lax_entry bs et p /\ lsp_transport p = Some t).

Lemma stored_transport_inv bs t : stored_transport bs t -> transport_inv bs t.
Proof.
  intros [(et & p & E & Ht)|(et & p & E & Ht)].
  - pose proof (sliced_wf_entry bs et p E) as (_ & _ & _ & D). rewrite Ht in D.
    exact (transport_prov_inv bs t D).
  - pose proof (lax_packet_wf bs et p E) as (_ & _ & _ & _ & D & _). rewrite Ht in D. exact D.
Qed.

(* the iteration with every iterator state placed in the input *)
Definition tcp_iter_in (bs : bytes) (o : slice) : Prop :=
  exists tr fin,
    TO.iterate (snd o) = TO.Ret (tr, fin) /\
    (length tr <= length (snd o))%nat /\
    fin = [] /\ (forall n, TO.next_n n fin = TO.Ret (repeat None n, [])) /\
    (forall pre e r post, tr = pre ++ (TO.Ok e, r) :: post -> len r < len (TO.last_rest (snd o) pre)) /\
    Forall (fun ir => exists k, k <= s_len o /\ in_window bs (s_off o + k, snd ir)) tr.

Theorem packet_tcp_options_iter bs hl s :
  bytes_ok bs -> stored_transport bs (TrTcp hl s) ->
  exists o, TcpSliceA.options (hl, s) = Ok o /\ sub_of o s /\ in_window bs o /\
            s_len o = hl - 20 /\ s_len o <= 40 /\ tcp_iter_in bs o.
Proof.
  intros Hok St. apply stored_transport_inv in St. destruct St as (I & W).
  destruct (tcp_options_window (hl, s) W) as (o & E & S & _ & Lo & L40). cbn [fst snd] in *.
  assert (Io : in_buf bs o) by (eapply sub_of_in_buf; eauto).
  exists o. split; [exact E|]. split; [exact S|]. split; [now apply in_buf_in_window|].
  split; [exact Lo|]. split; [exact L40|].
  destruct (tcp_iter_total o) as (tr & fin & Ei & B1 & F1 & F2 & B2 & T).
  exists tr, fin. repeat (split; [assumption|]).
  eapply Forall_impl; [|exact (T (in_buf_bytes_ok bs o Hok Io))].
  intros ir Tw. exact (tail_window_in bs o _ Io Tw).
Qed.

(* the same with the payload window, the options area and the iterator placed in the input *)
Definition payload_slice_in (bs : bytes) (pw : slice) (r : C6S.res P6.t) : Prop :=
  (forall n, r <> C6S.UB n) /\
  (forall ps, r = C6S.Ok ps ->
     snd ps = snd pw /\
     exists view, P6.accessors ps = C6S.Ok view /\
       forall opts, pview_options view = Some opts ->
         (exists k, k <= s_len pw /\ in_window bs (s_off pw + k, opts)) /\ ndp_iter_ok opts).

Theorem packet_icmp6_payload_slice bs s :
  stored_transport bs (TrIcmpv6 s) ->
  exists t c pw,
    icmpv6_payload_slice s = Ok (pw, P6.from_type_u8 t c (snd pw)) /\
    sub_of pw s /\ in_window bs pw /\ s_len pw = s_len s - 8 /\
    payload_slice_in bs pw (P6.from_type_u8 t c (snd pw)).
Proof.
  intros St. apply stored_transport_inv in St. destruct St as (I & W).
  destruct (icmp6_payload_slice_ok s W) as (t & c & pw & E & _ & _ & _ & S & _ & Lp & (NU & P)).
  assert (Ip : in_buf bs pw) by (eapply sub_of_in_buf; eauto).
  exists t, c, pw. split; [exact E|]. split; [exact S|]. split; [now apply in_buf_in_window|].
  split; [exact Lp|]. split; [exact NU|].
  intros ps Eps. destruct (P ps Eps) as (Es & view & Ea & Po). split; [exact Es|].
  exists view. split; [exact Ea|]. intros opts Ho. destruct (Po opts Ho) as (Tw & Ni).
  split; [exact (tail_window_in bs pw opts Ip Tw)|exact Ni].
Qed.
