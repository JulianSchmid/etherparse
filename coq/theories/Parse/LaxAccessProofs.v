(* Every lax single-layer constructor establishes the per-type invariants of
   Parse/AccessProofs.v (wf_macsech, wf_ipv4h, wf_ah, wf_ipv6h, exts_good ...);
   in particular Ipv6ExtensionsSlice::from_slice_lax stores a slice that holds only
   COMPLETE headers, whatever made the walk stop (lax_exts_good).  Provenance of the
   components of a LaxSlicedPacket and accessor safety from it: Parse/LaxAccessPacket.v. *)
From EP Require Import Base.Bytes Parse.Types Parse.Slices Parse.Cursor Parse.Repr
  Parse.LaxSlices Parse.LaxCursor Parse.Access Parse.AccessProofs Parse.LaxAccess.
From Coq Require Import ZArith Lia ZifyN ZifyBool.
Import LaxSlicedPacketCursor.

Local Open Scope N_scope.

Lemma lax_macsec_wf s m :
  LaxMacsecSlice.from_slice s = Ok m ->
  wf_macsech (lms_header m) /\ sub_of (lms_header m) s /\ sub_of (LaxMacsecA.payload_slice m) s.
Proof.
  unfold LaxMacsecSlice.from_slice. intros H. binv H header Eh. binv H epl Eepl. binv H t Et.
  destruct t as ((inc, ps), src). binv H net Enet.
  apply macsech_wf in Eh. destruct Eh as (Wh & Sh).
  assert (Sp : sub_of ps s).
  { destruct epl as [req|].
    - binv Et hl Ehl. destruct (s_len s <? hl + req).
      + binv Et n En. binv Et p Ep. injection Et as _ <- _. now exists (s_len header), n.
      + binv Et p Ep. injection Et as _ <- _. now exists (s_len header), req.
    - binv Et n En. binv Et p Ep. injection Et as _ <- _. now exists (s_len header), n. }
  destruct net as [et|]; injection H as <-; unfold LaxMacsecA.payload_slice; cbn; auto.
Qed.

Import Ipv6ExtIterA.

(* whatever stop error the lax walk ends with, what it consumed is a chain of complete
   headers *)
Lemma lax_walk_chain fuel start_len : forall W nh fr Wf nhf frf err,
  LaxIpv6Exts.walk fuel start_len W nh fr = Ok (Wf, nhf, frf, err) ->
  exists items, hdr_chain W nh Wf items.
Proof.
  induction fuel as [|f IH]; intros W nh fr Wf nhf frf err H; [discriminate|].
  cbn [LaxIpv6Exts.walk] in H.
  assert (Stop : forall a b c, Ok (W, a, b, c) = Ok (Wf, nhf, frf, err) ->
                               exists items, hdr_chain W nh Wf items).
  { intros a b c E. injection E as <- _ _ _. exists []. constructor. }
  destruct (nh =? IPN_HOP_BY_HOP) eqn:E0; [exact (Stop _ _ _ H)|].
  destruct ((nh =? IPN_DEST_OPTIONS) || (nh =? IPN_ROUTE)) eqn:Eraw.
  { destruct (Ipv6RawExtHeaderSlice.from_slice W) as [sl|[e|c]|b] eqn:Esl; try discriminate.
    - eapply chain_step; [| |exact H].
      + intros nx. apply raw_hdr_at; [lia|exact Esl].
      + intros W' nx. apply IH.
    - binv H off Eoff. exact (Stop _ _ _ H). }
  destruct (nh =? IPN_FRAG) eqn:Efrag.
  { apply N.eqb_eq in Efrag. subst nh.
    destruct (Ipv6FragmentHeaderSlice.from_slice W) as [sl|[e|c]|b] eqn:Esl; try discriminate.
    - eapply chain_step; [| |exact H].
      + intros nx. now apply frag_hdr_at.
      + intros W' nx HK. binv HK fr2 Efr. exact (IH _ _ _ _ _ _ _ HK).
    - binv H off Eoff. exact (Stop _ _ _ H). }
  destruct (nh =? IPN_AUTH) eqn:Eauth.
  { apply N.eqb_eq in Eauth. subst nh.
    destruct (IpAuthHeaderSlice.from_slice W) as [sl|[e|c]|b] eqn:Esl; try discriminate.
    - eapply chain_step; [| |exact H].
      + intros nx. now apply ah_hdr_at.
      + intros W' nx. apply IH.
    - binv H off Eoff. exact (Stop _ _ _ H).
    - exact (Stop _ _ _ H). }
  exact (Stop _ _ _ H).
Qed.

Lemma lax_walk_collect fuel start_len :
  forall W nh fr Wf nhf frf err,
    LaxIpv6Exts.walk fuel start_len W nh fr = Ok (Wf, nhf, frf, err) ->
    s_len Wf <= s_len W /\ sub_of Wf W /\
    forall I fuel2, pre (s_len W - s_len Wf) I W -> (N.to_nat (s_len W - s_len Wf) < fuel2)%nat ->
      exists items, collect fuel2 (mkExtIter nh I) = Ok items /\
                    chain_good (s_off W) I (s_len W - s_len Wf) items.
Proof.
  intros W nh fr Wf nhf frf err H. destruct (lax_walk_chain _ _ _ _ _ _ _ _ _ H) as (items & C).
  destruct (hdr_chain_collect _ _ _ _ C) as (A1 & A2 & A3).
  split; [exact A1|]. split; [exact A2|]. intros I fuel2 P Hf. exists items. now apply A3.
Qed.

(* Ipv6ExtensionsSlice::from_slice_lax establishes what the iterator needs, for EVERY
   start number, slice and stop error *)
Lemma lax_exts_good nh s x nx rest err :
  LaxIpv6Exts.from_slice_lax nh s = Ok (x, nx, rest, err) ->
  exts_good x /\ sub_of (x6_slice x) s /\ sub_of rest s.
Proof.
  unfold LaxIpv6Exts.from_slice_lax. intros H.
  binv H st Est. destruct st as ((rest0, nh0), err0).
  binv H w Ew. destruct w as (((restf, nxf), frf), errf).
  binv H used Eu. apply subN_inv in Eu. destruct Eu as (Lr & ->).
  binv H sl Esl.
  destruct (s_len s - s_len restf <=? s_len s) eqn:Eus; [|discriminate]. injection Esl as <-.
  injection H as <- _ <- _. cbn [x6_slice].
  destruct (IPN_HOP_BY_HOP =? nh) eqn:Ehbh.
  - apply N.eqb_eq in Ehbh. subst nh.
    destruct (Ipv6RawExtHeaderSlice.from_slice s) as [sl0|[e|c]|b] eqn:Esl0; try discriminate.
    + (* hop-by-hop header first: one more link in front *)
      binv Est r0 Er0. binv Est n0 En0. injection Est as <- <- <-.
      destruct (s_len sl0 <=? s_len s) eqn:El0; [|discriminate]. injection Er0 as <-.
      apply lax_walk_chain in Ew. destruct Ew as (items & C).
      eapply exts_good_of_chain, hc_cons;
        [exact (raw_hdr_at s IPN_HOP_BY_HOP sl0 n0 eq_refl Esl0 En0)|apply drop_as_sub; lia|exact C].
    + (* hop-by-hop header announced but not complete: the walk is not entered *)
      injection Est as <- <- <-. injection Ew as <- _ _ _. eapply exts_good_of_chain, hc_nil.
  - injection Est as <- <- <-. apply lax_walk_chain in Ew. destruct Ew as (items & C).
    eapply exts_good_of_chain, C.
Qed.

Lemma lax_select_payload_sub s hl tl hp src inc :
  LaxIpv4Slice.select_payload s hl tl = Ok (hp, src, inc) -> sub_of hp s.
Proof.
  unfold LaxIpv4Slice.select_payload. intros H.
  destruct (tl <? hl); [|destruct (s_len s <? tl)];
    binv H n En; binv H p Ep; injection H as <- _ _; now exists hl, n.
Qed.

Lemma lax_ipv4_finish_wf header hp src inc v stop :
  LaxIpv4Slice.finish header hp src inc = Ok (v, stop) ->
  lv4_header v = header /\
  match lv4_auth v with Some a => wf_ah a /\ sub_of a hp | None => True end /\
  sub_of (lipp_slice (lv4_payload v)) hp.
Proof.
  unfold LaxIpv4Slice.finish. intros H. binv H fr Efr. binv H proto Ep.
  destruct (proto =? IPN_AUTH).
  - destruct (IpAuthHeaderSlice.from_slice hp) as [auth|e|b] eqn:Ea; try discriminate.
    + binv H n En. binv H payload Epl. binv H ipn Eipn. injection H as <- _. cbn.
      apply ah_wf in Ea. destruct Ea as (Wa & Sa). repeat split; auto.
      now exists (s_len auth), n.
    + injection H as <- _. cbn. repeat split; auto. apply sub_of_refl.
  - injection H as <- _. cbn. repeat split; auto. apply sub_of_refl.
Qed.

Lemma lax_ipv4_wf s v stop :
  LaxIpv4Slice.from_slice s = Ok (v, stop) -> wf_ipv4 (strict_v4 v) /\ ipv4_in (strict_v4 v) s.
Proof.
  unfold LaxIpv4Slice.from_slice. intros H. binv H header Eh. binv H total Et.
  binv H t Esel. destruct t as ((hp, src), inc).
  apply ipv4h_wf in Eh. destruct Eh as (Wh & Sh).
  pose proof (lax_select_payload_sub _ _ _ _ _ _ Esel) as Shp.
  apply lax_ipv4_finish_wf in H. destruct H as (E1 & E2 & E3).
  eapply (ipv4_pack (strict_v4 v)); eauto.
Qed.

Lemma lax_ipv6_finish_wf header hp src inc v stop :
  LaxIpv6Slice.finish header hp src inc = Ok (v, stop) ->
  lv6_header v = header /\ exts_good (lv6_exts v) /\
  sub_of (x6_slice (lv6_exts v)) hp /\ sub_of (lipp_slice (lv6_payload v)) hp.
Proof.
  unfold LaxIpv6Slice.finish. intros H. binv H nh Enh. binv H x Ex.
  destruct x as (((exts, pn), payload), es). injection H as <- _. cbn.
  apply lax_exts_good in Ex. tauto.
Qed.

Lemma lax_ipv6_pack v header hp s :
  wf_ipv6h header -> sub_of header s -> sub_of hp s ->
  lv6_header v = header /\ exts_good (lv6_exts v) /\
  sub_of (x6_slice (lv6_exts v)) hp /\ sub_of (lipp_slice (lv6_payload v)) hp ->
  wf_ipv6 (strict_v6 v) /\ ipv6_in (strict_v6 v) s.
Proof.
  intros Wh Sh Shp (E1 & E2 & E3 & E4). unfold wf_ipv6, ipv6_in, strict_v6. cbn. rewrite E1.
  pose proof (sub_of_trans _ _ _ E3 Shp). pose proof (sub_of_trans _ _ _ E4 Shp). tauto.
Qed.

Lemma lax_ipv6_wf s v stop :
  LaxIpv6Slice.from_slice s = Ok (v, stop) -> wf_ipv6 (strict_v6 v) /\ ipv6_in (strict_v6 v) s.
Proof.
  unfold LaxIpv6Slice.from_slice. intros H. binv H header Eh. binv H pl Epl.
  binv H t Et. destruct t as ((hp, src), inc).
  apply ipv6h_wf in Eh. destruct Eh as (Wh & Sh).
  assert (Shp : sub_of hp s).
  { destruct ((0 =? pl) && (40 <? s_len s)).
    - binv Et n En. binv Et p Ep. injection Et as <- _ _. now exists 40, n.
    - destruct (s_len s <? 40 + pl).
      + binv Et n En. binv Et p Ep. injection Et as <- _ _. now exists 40, n.
      + binv Et p Ep. injection Et as <- _ _. now exists 40, pl. }
  apply lax_ipv6_finish_wf in H. eapply lax_ipv6_pack; eauto.
Qed.

Definition lax_ip_good (i : lax_ip_slice) (s : slice) : Prop :=
  match i with
  | LIpV4 v => wf_ipv4 (strict_v4 v) /\ ipv4_in (strict_v4 v) s
  | LIpV6 v => wf_ipv6 (strict_v6 v) /\ ipv6_in (strict_v6 v) s
  end.

Lemma lax_ip_wf s i stop : LaxIpSlice.from_slice s = Ok (i, stop) -> lax_ip_good i s.
Proof.
  unfold LaxIpSlice.from_slice. intros H. finv H E0. binv H fb Efb. cbv zeta in H.
  destruct (N.shiftr fb 4 =? 4).
  - finv H Ei. finv H El.
    binv H header Eh. binv H total Et. binv H t Esel. destruct t as ((hp, src), inc).
    binv H r Er. destruct r as (v, st). injection H as <- _.
    destruct (prefix_hdr _ _ _ Eh) as (Lh & Sh & _). pose proof (land15_le fb).
    assert (Wh : wf_ipv4h header) by (unfold wf_ipv4h; lia).
    pose proof (lax_select_payload_sub _ _ _ _ _ _ Esel) as Shp.
    apply lax_ipv4_finish_wf in Er. destruct Er as (E1 & E2 & E3).
    cbn [lax_ip_good]. eapply (ipv4_pack (strict_v4 v)); eauto.
  - destruct (N.shiftr fb 4 =? 6); [|discriminate]. finv H El.
    binv H header Eh. binv H pl Epl. binv H t Et. destruct t as ((hp, src), inc).
    binv H r Er. destruct r as (v, st). injection H as <- _.
    destruct (prefix_hdr _ _ _ Eh) as (Wh & Sh & _).
    assert (Shp : sub_of hp s).
    { destruct ((0 =? pl) && (40 <? s_len s)).
      - binv Et n En. binv Et p Ep. injection Et as <- _ _. now exists 40, n.
      - binv Et d Ed. destruct (d <? pl).
        + binv Et n En. binv Et p Ep. injection Et as <- _ _. now exists 40, n.
        + binv Et p Ep. injection Et as <- _ _. now exists 40, pl. }
    apply lax_ipv6_finish_wf in Er. cbn [lax_ip_good]. eapply lax_ipv6_pack; eauto.
Qed.

