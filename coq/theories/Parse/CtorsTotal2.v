(* The public slice constructors that Parse/CtorsTotal.v does not list, on ARBITRARY slices
   (C01 / C02):

     Ethernet2HeaderSlice::from_slice   (link/ethernet2_header_slice.rs: length test,
                                         from_raw_parts(slice.as_ptr(), 14))
     SingleVlanHeaderSlice::from_slice  (link/single_vlan_header_slice.rs: the same with 4)
     Ipv4ExtensionsSlice::from_slice    (net/ipv4_exts_slice.rs; model: LaxSlices.Ipv4Exts)
     the 11 typed ICMPv6 payload slices and the enum constructor
     Icmpv6PayloadSlice::{from_slice, from_type_u8}
                                        (transport/icmpv6/icmpv6_payload_slice/*.rs; model:
                                         CtlMsg/Model.v, Icmpv6PayloadSlice -- safe Rust: a
                                         length test and a copy of the reference; the panic
                                         sites are in the accessors: first_chunk().unwrap(),
                                         &slice[FIXED_PART_LEN..])

   For every slice value (any pointer offset, contents, length; accepted or rejected): the
   run returns Ok or Err, never Bug / UB (no failing from_raw_parts, checked index, unwrap),
   and what the returned value stores is a window of the input.  The first two are
   transliterated here (Parse/HdrModel.v contains them only inlined in
   Ethernet2Header::from_slice / SingleVlanHeader::from_slice: `hdr_eth2_uses`,
   `hdr_vlan_uses`). *)
From EP Require Import Base.Bytes Parse.Types Parse.Slices Parse.AccessProofs Parse.CtorsTotal
  Parse.HdrModel Parse.LaxSlices.
From EP Require CtlMsg.Spec CtlMsg.Model CtlMsg.Proofs.
From Coq Require Import ZArith Lia ZifyN ZifyBool.

Local Open Scope N_scope.

Module Ethernet2HeaderSliceM.
  Definition from_slice (s : slice) : res slice :=
    if s_len s <? 14 then lerr 14 (s_len s) LsSlice LyEthernet2Header
    else subU s 0 14.
End Ethernet2HeaderSliceM.

Module SingleVlanHeaderSliceM.
  Definition from_slice (s : slice) : res slice :=
    if s_len s <? 4 then lerr 4 (s_len s) LsSlice LyVlanHeader
    else subU s 0 4.
End SingleVlanHeaderSliceM.

(* they are the first step of the struct decoders of Parse/HdrModel.v *)
Lemma hdr_eth2_uses s :
  Ethernet2Header.from_slice s =
  (let* h := Ethernet2HeaderSliceM.from_slice s in let* rest := idx_from s 14 in Ok (h, rest)).
Proof. reflexivity. Qed.

Lemma hdr_vlan_uses s :
  SingleVlanHeader.from_slice s =
  (let* h := SingleVlanHeaderSliceM.from_slice s in let* rest := idx_from s 4 in Ok (h, rest)).
Proof. reflexivity. Qed.

Lemma nb_eth2h s : nobug (Ethernet2HeaderSliceM.from_slice s).
Proof. unfold Ethernet2HeaderSliceM.from_slice. nb. Qed.

Lemma nb_vlanh s : nobug (SingleVlanHeaderSliceM.from_slice s).
Proof. unfold SingleVlanHeaderSliceM.from_slice. nb. Qed.

Lemma eth2h_wf s h : Ethernet2HeaderSliceM.from_slice s = Ok h -> s_len h = 14 /\ sub_of h s.
Proof.
  unfold Ethernet2HeaderSliceM.from_slice. intros H. finv H C.
  destruct (prefix_hdr _ _ _ H) as (L & S & _). now split.
Qed.

Lemma vlanh_wf s h : SingleVlanHeaderSliceM.from_slice s = Ok h -> s_len h = 4 /\ sub_of h s.
Proof.
  unfold SingleVlanHeaderSliceM.from_slice. intros H. finv H C.
  destruct (prefix_hdr _ _ _ H) as (L & S & _). now split.
Qed.

Lemma nb_ipv4exts nh s : nobug (Ipv4Exts.from_slice nh s).
Proof.
  unfold Ipv4Exts.from_slice. destruct (IPN_AUTH =? nh); [|apply nobug_Ok].
  apply nobug_bind; [apply nb_ah|]. intros h Eh.
  apply ah_wf in Eh. destruct Eh as ((p & E1 & P1 & La) & Sa).
  pose proof (sub_of_len _ _ Sa) as Lh. unfold IpAuthHeaderSlice.next_header. nb.
Qed.

(* stored: the authentication header (a window of the input); rest: the input behind it *)
Lemma ipv4exts_wf nh s a nx rest :
  Ipv4Exts.from_slice nh s = Ok (a, nx, rest) ->
  sub_of rest s /\
  match a with
  | Some h => nh = IPN_AUTH /\ IpAuthHeaderSlice.from_slice s = Ok h /\ sub_of h s /\
              s_off rest = s_off s + s_len h /\ s_len rest = s_len s - s_len h
  | None => nh <> IPN_AUTH /\ nx = nh /\ rest = s
  end.
Proof.
  unfold Ipv4Exts.from_slice. destruct (IPN_AUTH =? nh) eqn:Ea.
  - intros H. binv H h Eh. binv H r Er. binv H n En. injection H as <- <- <-.
    pose proof (ah_wf _ _ Eh) as (_ & Sh). pose proof (sub_of_len _ _ Sh) as Lh.
    destruct (s_len h <=? s_len s) eqn:C; [|discriminate]. injection Er as <-.
    assert (D : subU s (s_len h) (s_len s - s_len h) = Ok (fst s + s_len h, drop (s_len h) (snd s)))
      by (apply drop_as_sub; lia).
    split; [now exists (s_len h), (s_len s - s_len h)|].
    apply subU_inv in D. destruct D as (_ & D1 & D2 & _).
    repeat split; auto. lia.
  - intros H. injection H as <- <- <-. split; [apply sub_of_refl|]. repeat split. lia.
Qed.

Module P6 := EP.CtlMsg.Model.Icmpv6PayloadSlice.
Notation ps_kind := EP.CtlMsg.Spec.ps_kind.

(* XxxPayloadSlice::from_slice by kind (PkRaw: the enum arm `Raw(payload)`, no constructor) *)
Definition payload_ctor (k : ps_kind) (s : bytes) : CtlMsg.Spec.res P6.t :=
  match k with
  | CtlMsg.Spec.PkRouterAdvertisement => P6.fixed_from_slice k P6.RA_FIXED_PART_LEN s
  | CtlMsg.Spec.PkNeighborSolicitation => P6.fixed_from_slice k P6.NS_FIXED_PART_LEN s
  | CtlMsg.Spec.PkNeighborAdvertisement => P6.fixed_from_slice k P6.NA_FIXED_PART_LEN s
  | CtlMsg.Spec.PkRedirect => P6.fixed_from_slice k P6.REDIRECT_FIXED_PART_LEN s
  | CtlMsg.Spec.PkRaw => CtlMsg.Spec.Ok (k, s)
  | _ => P6.plain_from_slice k s
  end.

(* the two enum constructors only ever run one of these *)
Lemma payload_from_slice_ctor ty s :
  P6.from_slice ty s = payload_ctor (CtlMsg.Spec.payload_kind_of ty) s.
Proof. destruct ty; reflexivity. Qed.

Lemma payload_from_type_u8_ctor t c s : exists k, P6.from_type_u8 t c s = payload_ctor k s.
Proof.
  unfold P6.from_type_u8.
  repeat match goal with
         | |- exists k, match ?x with _ => _ end = _ => destruct x
         | |- exists k, (if ?x then _ else _) = _ => destruct x
         end;
    first [ now exists CtlMsg.Spec.PkRaw
          | now exists CtlMsg.Spec.PkDestinationUnreachable
          | now exists CtlMsg.Spec.PkPacketTooBig
          | now exists CtlMsg.Spec.PkTimeExceeded
          | now exists CtlMsg.Spec.PkParameterProblem
          | now exists CtlMsg.Spec.PkEchoRequest
          | now exists CtlMsg.Spec.PkEchoReply
          | now exists CtlMsg.Spec.PkRouterSolicitation
          | now exists CtlMsg.Spec.PkRouterAdvertisement
          | now exists CtlMsg.Spec.PkNeighborSolicitation
          | now exists CtlMsg.Spec.PkNeighborAdvertisement
          | now exists CtlMsg.Spec.PkRedirect ].
Qed.

(* closed form: one length test against the fixed part of the kind *)
Lemma payload_ctor_closed k s :
  payload_ctor k s =
  if len s <? CtlMsg.Spec.ndp_fixed_len k
  then CtlMsg.Spec.ErrLen (CtlMsg.Spec.mkLenError (CtlMsg.Spec.ndp_fixed_len k) (len s)
                             CtlMsg.Spec.LsSlice CtlMsg.Spec.LIcmpv6 0)
  else CtlMsg.Spec.Ok (k, s).
Proof.
  destruct k; cbn [payload_ctor CtlMsg.Spec.ndp_fixed_len]; unfold P6.plain_from_slice, P6.fixed_from_slice,
    P6.RA_FIXED_PART_LEN, P6.NS_FIXED_PART_LEN, P6.NA_FIXED_PART_LEN, P6.REDIRECT_FIXED_PART_LEN;
    try reflexivity;
    (destruct (len s <? 0) eqn:C; [exfalso; lia|reflexivity]).
Qed.

(* no UB; an accepted value stores exactly the input slice, and every accessor of it
   (reachable_time, retrans_timer, target_address, destination_address, options: the unwraps
   of first_chunk and the checked `[FIXED_PART_LEN..]`) returns: the view of CtlMsg/Spec.v *)
Lemma payload_ctor_total k s :
  (forall n, payload_ctor k s <> CtlMsg.Spec.UB n) /\
  (forall p, payload_ctor k s = CtlMsg.Spec.Ok p ->
     p = (k, s) /\ CtlMsg.Spec.ndp_fixed_len k <= len s /\
     P6.accessors p = CtlMsg.Spec.Ok (CtlMsg.Spec.ndp_payload_view k s)).
Proof.
  rewrite payload_ctor_closed. destruct (len s <? CtlMsg.Spec.ndp_fixed_len k) eqn:C.
  - split; [intros n; discriminate|intros p; discriminate].
  - split; [intros n; discriminate|]. intros p H. injection H as <-.
    split; [reflexivity|]. split; [lia|]. apply CtlMsg.Proofs.payload_accessors_spec. lia.
Qed.

Theorem remaining_ctors_no_bug :
  (forall s, nobug (Ethernet2HeaderSliceM.from_slice s)) /\
  (forall s, nobug (SingleVlanHeaderSliceM.from_slice s)) /\
  (forall nh s, nobug (Ipv4Exts.from_slice nh s)) /\
  (forall k s n, payload_ctor k s <> CtlMsg.Spec.UB n) /\
  (forall ty s n, P6.from_slice ty s <> CtlMsg.Spec.UB n) /\
  (forall t c s n, P6.from_type_u8 t c s <> CtlMsg.Spec.UB n) /\
  (* what they store lies in the input *)
  (forall s h, Ethernet2HeaderSliceM.from_slice s = Ok h -> s_len h = 14 /\ sub_of h s) /\
  (forall s h, SingleVlanHeaderSliceM.from_slice s = Ok h -> s_len h = 4 /\ sub_of h s) /\
  (forall nh s a nx rest, Ipv4Exts.from_slice nh s = Ok (a, nx, rest) ->
     sub_of rest s /\
     (forall h, a = Some h -> IpAuthHeaderSlice.from_slice s = Ok h /\ sub_of h s)) /\
  (forall k s p, payload_ctor k s = CtlMsg.Spec.Ok p ->
     p = (k, s) /\ forall n, P6.accessors p <> CtlMsg.Spec.UB n).
Proof.
  split; [exact nb_eth2h|]. split; [exact nb_vlanh|]. split; [exact nb_ipv4exts|].
  split; [intros k s; apply payload_ctor_total|].
  split; [intros ty s; rewrite payload_from_slice_ctor; apply payload_ctor_total|].
  split; [intros t c s; destruct (payload_from_type_u8_ctor t c s) as (k & ->); apply payload_ctor_total|].
  split; [exact eth2h_wf|]. split; [exact vlanh_wf|].
  split.
  - intros nh s a nx rest H. apply ipv4exts_wf in H. destruct H as (Sr & Ha).
    split; [exact Sr|]. intros h ->. tauto.
  - intros k s p H. destruct (payload_ctor_total k s) as (_ & T). destruct (T p H) as (-> & _ & A).
    split; [reflexivity|]. intros n. rewrite A. discriminate.
Qed.

(* the transliterations are what the struct decoders run; the enum constructors run payload_ctor *)
Theorem remaining_ctors_used :
  (forall s, Ethernet2Header.from_slice s =
             (let* h := Ethernet2HeaderSliceM.from_slice s in let* rest := idx_from s 14 in Ok (h, rest))) /\
  (forall s, SingleVlanHeader.from_slice s =
             (let* h := SingleVlanHeaderSliceM.from_slice s in let* rest := idx_from s 4 in Ok (h, rest))) /\
  (forall ty s, P6.from_slice ty s = payload_ctor (CtlMsg.Spec.payload_kind_of ty) s) /\
  (forall t c s, exists k, P6.from_type_u8 t c s = payload_ctor k s).
Proof.
  split; [exact hdr_eth2_uses|]. split; [exact hdr_vlan_uses|].
  split; [exact payload_from_slice_ctor|exact payload_from_type_u8_ctor].
Qed.

(* the totality reading (C02) *)
Definition returns6 {A} (r : CtlMsg.Spec.res A) : Prop :=
  (exists v, r = CtlMsg.Spec.Ok v) \/ (exists e, r = CtlMsg.Spec.ErrLen e).

Lemma returns6_of {A} (r : CtlMsg.Spec.res A) : (forall n, r <> CtlMsg.Spec.UB n) -> returns6 r.
Proof. destruct r as [v|e|n]; intros H; [left; eauto|right; eauto|exfalso; now apply (H n)]. Qed.

Theorem remaining_ctors_return :
  (forall s, returns (Ethernet2HeaderSliceM.from_slice s)) /\
  (forall s, returns (SingleVlanHeaderSliceM.from_slice s)) /\
  (forall nh s, returns (Ipv4Exts.from_slice nh s)) /\
  (forall k s, returns6 (payload_ctor k s)) /\
  (forall ty s, returns6 (P6.from_slice ty s)) /\
  (forall t c s, returns6 (P6.from_type_u8 t c s)) /\
  (* and so do all accessors of an accepted payload slice *)
  (forall k s p, payload_ctor k s = CtlMsg.Spec.Ok p ->
     P6.accessors p = CtlMsg.Spec.Ok (CtlMsg.Spec.ndp_payload_view k s)).
Proof.
  destruct remaining_ctors_no_bug as (A1 & A2 & A3 & A4 & A5 & A6 & _).
  split; [intros s; apply nobug_returns, A1|]. split; [intros s; apply nobug_returns, A2|].
  split; [intros nh s; apply nobug_returns, A3|].
  split; [intros k s; apply returns6_of, A4|]. split; [intros ty s; apply returns6_of, A5|].
  split; [intros t c s; apply returns6_of, A6|].
  intros k s p H. destruct (payload_ctor_total k s) as (_ & T). now destruct (T p H) as (_ & _ & A).
Qed.
