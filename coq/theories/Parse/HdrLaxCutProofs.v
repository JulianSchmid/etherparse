(* Parse/HdrLaxCutProofs.v -- the cut variant of the lax slicing algorithm (HdrLaxCut.v):
   with cut = false it IS the lax slicing model; with cut = true it differs from it only
   by having stopped (without stop error) in front of a refilled IPv6 extension header. *)
From EP Require Import Base.Bytes Parse.Types Parse.Slices Parse.Cursor Parse.View
  Parse.LaxSlices Parse.LaxCursor Parse.LaxView Parse.HdrModel Parse.HdrView Parse.HdrCut
  Parse.HdrProofs Parse.HdrLaxModel Parse.HdrLaxView Parse.HdrLaxCut.
From Coq Require Import ZArith.
Import LaxSlicedPacketCursor.

Local Open Scope N_scope.

(* With cut = false the LaxCut functions are the lax slicing model. *)
Lemma lcut_false_walk fuel : forall start_len rest nh fr f,
  LaxCut.walk false fuel start_len rest nh fr f = LaxIpv6Exts.walk fuel start_len rest nh fr.
Proof.
  induction fuel as [|fu IH]; intros; [reflexivity|].
  cbn [LaxCut.walk LaxIpv6Exts.walk andb].
  destruct (nh =? IPN_HOP_BY_HOP); [reflexivity|].
  destruct ((nh =? IPN_DEST_OPTIONS) || (nh =? IPN_ROUTE)).
  { destruct (Ipv6RawExtHeaderSlice.from_slice rest) as [sl|e|b]; [|reflexivity|reflexivity].
    do 3 (apply bind_congr; intro). apply IH. }
  destruct (nh =? IPN_FRAG).
  { destruct (Ipv6FragmentHeaderSlice.from_slice rest) as [sl|e|b]; [|reflexivity|reflexivity].
    do 4 (apply bind_congr; intro). apply IH. }
  destruct (nh =? IPN_AUTH); [|reflexivity].
  destruct (IpAuthHeaderSlice.from_slice rest) as [sl|e|b]; [|reflexivity|reflexivity].
  do 3 (apply bind_congr; intro). apply IH.
Qed.

Lemma lcut_false_exts nh s : LaxCut.exts_from_slice_lax false nh s = LaxIpv6Exts.from_slice_lax nh s.
Proof.
  unfold LaxCut.exts_from_slice_lax, LaxIpv6Exts.from_slice_lax.
  apply bind_congr; intros [[r0 n0] [e0|]]; [reflexivity|]. now rewrite lcut_false_walk.
Qed.

Lemma lcut_false_v6_finish h hp src inc :
  LaxCut.v6_finish false h hp src inc = LaxIpv6Slice.finish h hp src inc.
Proof.
  unfold LaxCut.v6_finish, LaxIpv6Slice.finish.
  apply bind_congr; intros nh. now rewrite lcut_false_exts.
Qed.

Lemma lcut_false_ip s : LaxCut.ip_from_slice false s = LaxIpSlice.from_slice s.
Proof.
  unfold LaxCut.ip_from_slice, LaxIpSlice.from_slice.
  destruct (s_len s =? 0); [reflexivity|].
  apply bind_congr; intros b0.
  destruct (N.shiftr b0 4 =? 4); [reflexivity|].
  destruct (N.shiftr b0 4 =? 6); [|reflexivity].
  destruct (s_len s <? 40); [reflexivity|].
  apply bind_congr; intros h. apply bind_congr; intros pl. apply bind_congr; intros [[hp src] inc].
  now rewrite lcut_false_v6_finish.
Qed.

Lemma lcut_false_slice_ip c s : LaxCut.slice_ip false c s = slice_ip c s.
Proof. unfold LaxCut.slice_ip, slice_ip. now rewrite lcut_false_ip. Qed.

Lemma lcut_false_loop fuel : forall c ep,
  LaxCut.slice_ether_type_loop false fuel c ep = slice_ether_type_loop fuel c ep.
Proof.
  induction fuel as [|f IH]; intros; [reflexivity|].
  cbn [LaxCut.slice_ether_type_loop slice_ether_type_loop].
  destruct (is_vlan_type (ep_ether_type ep)).
  { destruct (LINK_EXTS_CAP <=? _); [reflexivity|].
    destruct (SingleVlanSlice.from_slice _) as [v|e|b]; [|reflexivity|reflexivity].
    do 2 (apply bind_congr; intro). apply IH. }
  destruct (ep_ether_type ep =? ET_MACSEC).
  { destruct (LINK_EXTS_CAP <=? _); [reflexivity|].
    destruct (LaxMacsecSlice.from_slice _) as [m|e|b]; [|reflexivity|reflexivity].
    do 2 (apply bind_congr; intro).
    destruct (lms_payload m); [apply IH|reflexivity]. }
  destruct (ep_ether_type ep =? ET_ARP); [reflexivity|].
  destruct (ep_ether_type ep =? ET_IPV4); [apply lcut_false_slice_ip|].
  destruct (ep_ether_type ep =? ET_IPV6); [apply lcut_false_slice_ip|reflexivity].
Qed.

Theorem lcut_false_from_ethernet bs : LaxCut.from_ethernet false bs = LaxSlicedPacket.from_ethernet bs.
Proof.
  unfold LaxCut.from_ethernet, LaxSlicedPacket.from_ethernet, LaxCut.parse_from_ethernet2,
    parse_from_ethernet2.
  do 2 (apply bind_congr; intro).
  unfold LaxCut.slice_ether_type, slice_ether_type. apply lcut_false_loop.
Qed.

Theorem lcut_false_from_ether_type et bs :
  LaxCut.from_ether_type false et bs = LaxSlicedPacket.from_ether_type et bs.
Proof.
  unfold LaxCut.from_ether_type, LaxSlicedPacket.from_ether_type, LaxCut.parse_from_ether_type,
    parse_from_ether_type, LaxCut.slice_ether_type, slice_ether_type. apply lcut_false_loop.
Qed.

Theorem lcut_false_from_ip bs : LaxCut.from_ip false bs = LaxSlicedPacket.from_ip bs.
Proof.
  unfold LaxCut.from_ip, LaxSlicedPacket.from_ip, LaxCut.parse_from_ip, parse_from_ip.
  now rewrite lcut_false_ip.
Qed.

(* With cut = true the result differs only by having stopped, without stop error, in front of
   a refilled extension header. *)
Definition wstopped (w : slice * N * bool * option stop_error) : Prop :=
  is_ext_number (snd (fst (fst w))) = true /\ snd w = None.

Lemma ldich_walk fuel : forall start rest nh fr f,
  dich wstopped (LaxCut.walk true fuel start rest nh fr f) (LaxCut.walk false fuel start rest nh fr f).
Proof.
  induction fuel as [|fu IH]; intros; [now left|].
  cbn [LaxCut.walk andb].
  destruct (refilled f nh) eqn:Er.
  { right. left. eexists. split; [reflexivity|]. split; [|reflexivity]. cbn. now apply (refilled_ext f). }
  destruct (nh =? IPN_HOP_BY_HOP); [now left|].
  destruct ((nh =? IPN_DEST_OPTIONS) || (nh =? IPN_ROUTE)).
  { destruct (Ipv6RawExtHeaderSlice.from_slice rest) as [sl|e|b]; [|now left|now left].
    do 3 (apply bind_rel; [apply dich_refl|intro]). apply IH. }
  destruct (nh =? IPN_FRAG).
  { destruct (Ipv6FragmentHeaderSlice.from_slice rest) as [sl|e|b]; [|now left|now left].
    do 4 (apply bind_rel; [apply dich_refl|intro]). apply IH. }
  destruct (nh =? IPN_AUTH); [|now left].
  destruct (IpAuthHeaderSlice.from_slice rest) as [sl|e|b]; [|now left|now left].
  do 3 (apply bind_rel; [apply dich_refl|intro]). apply IH.
Qed.

Definition xstopped (x : ipv6_exts_slice * N * slice * option stop_error) : Prop :=
  is_ext_number (snd (fst (fst x))) = true /\ snd x = None.

Lemma ldich_exts nh s :
  dich xstopped (LaxCut.exts_from_slice_lax true nh s) (LaxCut.exts_from_slice_lax false nh s).
Proof.
  unfold LaxCut.exts_from_slice_lax.
  apply bind_rel; [apply dich_refl|intros [[r0 n0] [e0|]]]; [now left|].
  eapply dich_bind; [apply ldich_walk|]. intros [[[r k] fr] st] (P1 & P2). cbn in P1, P2. subst st.
  destruct (subN_cases (s_len s) (s_len r)) as [(a & ->)| ->]; cbn [bind]; [|eauto].
  destruct (a <=? s_len s); cbn [bind]; [left|eauto].
  eexists. split; [reflexivity|]. split; [exact P1|reflexivity].
Qed.

Definition lv6_ext (r : lax_ipv6_slice * option stop_error) : Prop :=
  is_ext_number (lipp_number (lv6_payload (fst r))) = true /\ snd r = None.

Lemma ldich_v6_finish h hp src inc :
  dich lv6_ext (LaxCut.v6_finish true h hp src inc) (LaxCut.v6_finish false h hp src inc).
Proof.
  unfold LaxCut.v6_finish.
  apply bind_rel; [apply dich_refl|intros nh].
  eapply dich_bind; [apply ldich_exts|]. intros [[[x k] r] st] (P1 & P2). cbn in P1, P2. subst st.
  left. eexists. split; [reflexivity|]. split; [exact P1|reflexivity].
Qed.

Definition lip_ext (r : lax_ip_slice * option stop_error) : Prop :=
  exists v, fst r = LIpV6 v /\ is_ext_number (lipp_number (lv6_payload v)) = true /\ snd r = None.

Lemma ldich_ip s :
  dich lip_ext (LaxCut.ip_from_slice true s) (LaxCut.ip_from_slice false s).
Proof.
  unfold LaxCut.ip_from_slice.
  destruct (s_len s =? 0); [now left|].
  apply bind_rel; [apply dich_refl|intros b0].
  destruct (N.shiftr b0 4 =? 4); [now left|].
  destruct (N.shiftr b0 4 =? 6); [|now left].
  destruct (s_len s <? 40); [now left|].
  apply bind_rel; [apply dich_refl|intros h]. apply bind_rel; [apply dich_refl|intros pl].
  apply bind_rel; [apply dich_refl|intros [[hp src] inc]].
  eapply dich_bind; [apply ldich_v6_finish|]. intros [v st] (P1 & P2). cbn in P1, P2. subst st.
  left. eexists. split; [reflexivity|]. exists v. cbn. auto.
Qed.

Lemma lslice_transport_ext c p :
  is_ext_number (lipp_number p) = true -> slice_transport c p = Ok (lc_result c).
Proof.
  intros H. destruct (ext_number_not_transport _ H) as (E1 & E2 & E3 & E4).
  unfold slice_transport. rewrite E1, E2, E3, E4.
  now destruct (lipp_fragmented p || has_stop (lc_result c)).
Qed.

Definition lsp_stopped (sp : lax_sliced_packet) : Prop := lax_stopped_at_ext (Ok sp) = true.

(* the tail shared by LaxCut.slice_ip and LaxCut.parse_from_ip once the IPv6 slice stopped at
   a cut: r is the result so far (no stop error) *)
Lemma lax_net_stopped v s (off : N -> N) src r :
  is_ext_number (lipp_number (lv6_payload v)) = true ->
  lsp_net r = Some (LNtIpv6 v) -> lsp_stop_err r = None ->
  (exists w, (let* d := ptr_diff (lipp_slice (lv6_payload v)) s in
              slice_transport (mkLaxCursor (off d) src r) (lv6_payload v)) = Ok w /\ lsp_stopped w) \/
  (exists b, (let* d := ptr_diff (lipp_slice (lv6_payload v)) s in
              slice_transport (mkLaxCursor (off d) src r) (lv6_payload v)) = Bug b).
Proof.
  intros P Hn Hs. unfold ptr_diff.
  destruct (subN_cases (s_off (lipp_slice (lv6_payload v))) (s_off s)) as [(d & ->)| ->]; cbn [bind]; [|eauto].
  rewrite lslice_transport_ext by exact P. left. eexists. split; [reflexivity|].
  unfold lsp_stopped, lax_stopped_at_ext. cbn [lc_result]. now rewrite Hn, Hs.
Qed.

Lemma ldich_slice_ip c s : lsp_stop_err (lc_result c) = None ->
  dich lsp_stopped (LaxCut.slice_ip true c s) (LaxCut.slice_ip false c s).
Proof.
  intros Hs. unfold LaxCut.slice_ip.
  destruct (ldich_ip s) as [->|[([i st] & -> & (v & Ev & P & Pn))|(b & ->)]];
    [now left| |right; right; now exists b].
  cbn in Ev, Pn. subst i st. right.
  cbn [option_map with_opt_stop LaxIpSlice.payload].
  apply (lax_net_stopped v s (fun d => lc_offset c + d)); [exact P|reflexivity|exact Hs].
Qed.

Lemma push_ext_stop r x r' : push_ext r x = Ok r' -> lsp_stop_err r' = lsp_stop_err r.
Proof.
  unfold push_ext. destruct (len (lsp_exts r) <? LINK_EXTS_CAP); [|discriminate].
  intros H. injection H as <-. reflexivity.
Qed.

Lemma ldich_loop fuel : forall c ep, lsp_stop_err (lc_result c) = None ->
  dich lsp_stopped (LaxCut.slice_ether_type_loop true fuel c ep)
                   (LaxCut.slice_ether_type_loop false fuel c ep).
Proof.
  induction fuel as [|f IH]; intros c ep Hs; [now left|].
  cbn [LaxCut.slice_ether_type_loop].
  destruct (is_vlan_type (ep_ether_type ep)).
  { destruct (LINK_EXTS_CAP <=? _); [now left|].
    destruct (SingleVlanSlice.from_slice _) as [v|e|b]; [|now left|now left].
    apply bind_rel; [apply dich_refl|intros vp].
    destruct (push_ext _ _) eqn:Ep; cbn [bind]; [|now left|now left]. apply IH.
    cbn [lc_result]. now rewrite (push_ext_stop _ _ _ Ep). }
  destruct (ep_ether_type ep =? ET_MACSEC).
  { destruct (LINK_EXTS_CAP <=? _); [now left|].
    destruct (LaxMacsecSlice.from_slice _) as [m|e|b]; [|now left|now left].
    apply bind_rel; [apply dich_refl|intros hl].
    destruct (push_ext _ _) eqn:Ep; cbn [bind]; [|now left|now left].
    destruct (lms_payload m); [|now left]. apply IH.
    cbn [lc_result]. now rewrite (push_ext_stop _ _ _ Ep). }
  destruct (ep_ether_type ep =? ET_ARP); [now left|].
  destruct (ep_ether_type ep =? ET_IPV4); [now apply ldich_slice_ip|].
  destruct (ep_ether_type ep =? ET_IPV6); [now apply ldich_slice_ip|now left].
Qed.

Lemma ldich_done (x y : res lax_sliced_packet) :
  dich lsp_stopped x y -> lax_stopped_at_ext x = false -> (forall b, x <> Bug b) -> x = y.
Proof.
  intros [E|[(v & E & P)|(b & E)]] Hs Hb; [exact E| |].
  - rewrite E in Hs. unfold lsp_stopped in P. congruence.
  - now destruct (Hb b).
Qed.

Theorem lcut_only_when_stopped_ethernet bs :
  lax_stopped_at_ext (LaxCut.from_ethernet true bs) = false ->
  (forall b, LaxCut.from_ethernet true bs <> Bug b) ->
  LaxCut.from_ethernet true bs = LaxSlicedPacket.from_ethernet bs.
Proof.
  intros Hs Hb. eapply eq_trans; [|apply lcut_false_from_ethernet].
  apply ldich_done; [|exact Hs|exact Hb].
  unfold LaxCut.from_ethernet, LaxCut.parse_from_ethernet2.
  do 2 (apply bind_rel; [apply dich_refl|intro]).
  unfold LaxCut.slice_ether_type. now apply ldich_loop.
Qed.

Theorem lcut_only_when_stopped_ether_type et bs :
  lax_stopped_at_ext (LaxCut.from_ether_type true et bs) = false ->
  (forall b, LaxCut.from_ether_type true et bs <> Bug b) ->
  LaxCut.from_ether_type true et bs = LaxSlicedPacket.from_ether_type et bs.
Proof.
  intros Hs Hb. eapply eq_trans; [|apply lcut_false_from_ether_type].
  apply ldich_done; [|exact Hs|exact Hb].
  unfold LaxCut.from_ether_type, LaxCut.parse_from_ether_type, LaxCut.slice_ether_type.
  now apply ldich_loop.
Qed.

Theorem lcut_only_when_stopped_ip bs :
  lax_stopped_at_ext (LaxCut.from_ip true bs) = false ->
  (forall b, LaxCut.from_ip true bs <> Bug b) ->
  LaxCut.from_ip true bs = LaxSlicedPacket.from_ip bs.
Proof.
  intros Hs Hb. eapply eq_trans; [|apply lcut_false_from_ip].
  apply ldich_done; [|exact Hs|exact Hb].
  unfold LaxCut.from_ip, LaxCut.parse_from_ip.
  eapply dich_bind; [apply ldich_ip|]. intros [i st] (v & Ev & P & Pn). cbn in Ev, Pn. subst i st.
  cbn [option_map LaxIpSlice.payload].
  apply (lax_net_stopped v (mk_slice bs) (fun d => d)); [exact P|reflexivity|reflexivity].
Qed.
