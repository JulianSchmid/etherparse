(* Parse/HdrValProofs.v -- header VALUE equality of the struct decoders and cut slicing:
   (a) every component of a CUT slicing result (`Cut.from_* cut bs`, Parse/HdrCut.v) was
       produced by its from_slice from a window of the input (`cut_wf`: the provenance
       predicates link_prov / ext_prov / transport_prov of C01 (Parse/AccessProofs.v) and, for the
       network layer, `cnet_ok`);
   (b) to_header() of a struct-side header slice = to_header() of the slicing-side slice
       (per header type; the struct-side slice is the same slice or the prefix the view
       `conv` takes as the header window);
   (c) composition with the window theorem (`hagree`, HdrProofs3) and the struct-side pass
       (HdrValStruct): `hdr_vals_eq`, all three strict entry points. *)
From Coq Require Import ZArith Lia ZifyN ZifyBool List.
From EP Require Import Base.Bytes Parse.Types Parse.Slices Parse.Cursor Parse.View Parse.Repr
  Parse.Access Parse.AccessProofs Parse.HdrModel Parse.HdrView Parse.HdrCut Parse.HdrProofs
  Parse.HdrProofs2 Parse.HdrProofs3 Parse.HdrSlots Parse.HdrSlots2 Parse.HdrVal Parse.HdrValStruct.
Import ListNotations.
Import SlicedPacketCursor.
Local Open Scope N_scope.

(* cut slicing: the stored network slices are windows of the input *)
Definition cnet_ok (bs : bytes) (n : net_slice) : Prop :=
  match n with
  | NtIpv4 v => in_buf bs (v4_header v) /\ optP (in_buf bs) (v4_auth v) /\
                in_buf bs (ipp_slice (v4_payload v))
  | NtIpv6 v => in_buf bs (v6_header v) /\ in_buf bs (x6_slice (v6_exts v)) /\
                in_buf bs (ipp_slice (v6_payload v))
  | NtArp a => in_buf bs a
  end.

Definition cut_wf (bs : bytes) : sliced_packet -> Prop := packet_wf bs (cnet_ok bs).

Section CutNet.
  Variable bs : bytes.

  (* the cut extension walk only moves forward inside the slice it was given *)
  Lemma cut_walk_sub cut fuel sl0 : forall rest nh fr f r' nh' fr',
    Cut.walk cut fuel sl0 rest nh fr f = Ok (r', nh', fr') -> sub_of r' rest.
  Proof.
    induction fuel as [|fu IH]; intros rest nh fr f r' nh' fr' H; [discriminate|].
    cbn [Cut.walk] in H.
    destruct (cut && refilled f nh); [injection H as <- _ _; apply sub_of_refl|].
    destruct (nh =? IPN_HOP_BY_HOP); [discriminate|].
    destruct ((nh =? IPN_DEST_OPTIONS) || (nh =? IPN_ROUTE)).
    { binv H off Eoff. binv H sl Esl. binv H n En. binv H rest' Er. binv H nx Enx.
      apply IH in H. eapply sub_of_trans; [exact H|]. eexists _, _; exact Er. }
    destruct (nh =? IPN_FRAG).
    { binv H off Eoff. binv H sl Esl. binv H n En. binv H rest' Er. binv H nx Enx. binv H fr2 Efr.
      apply IH in H. eapply sub_of_trans; [exact H|]. eexists _, _; exact Er. }
    destruct (nh =? IPN_AUTH).
    { binv H off Eoff. binv H sl Esl. binv H n En. binv H rest' Er. binv H nx Enx.
      apply IH in H. eapply sub_of_trans; [exact H|]. eexists _, _; exact Er. }
    injection H as <- _ _. apply sub_of_refl.
  Qed.

  Lemma cut_exts_sub cut nh s xs nh' rest :
    Cut.exts_from_slice cut nh s = Ok (xs, nh', rest) -> sub_of (x6_slice xs) s /\ sub_of rest s.
  Proof.
    unfold Cut.exts_from_slice. intros H. binv H st Est. destruct st as (rest0, nh0).
    binv H w Ew. destruct w as ((restf, nxf), frf). binv H used Eu. binv H sl Esl.
    injection H as <- _ <-. cbn [x6_slice].
    assert (S0 : sub_of rest0 s).
    { destruct (IPN_HOP_BY_HOP =? nh).
      - binv Est sl0 Esl0. binv Est r0 Er0. binv Est n0 En0. injection Est as <- _.
        destruct (s_len sl0 <=? s_len s) eqn:El; [|discriminate]. injection Er0 as <-.
        exists (s_len sl0), (s_len s - s_len sl0). apply drop_as_sub. lia.
      - injection Est as <- _. apply sub_of_refl. }
    apply cut_walk_sub in Ew. split; [|exact (sub_of_trans _ _ _ Ew S0)].
    destruct (used <=? s_len s) eqn:El; [|discriminate]. injection Esl as <-.
    exists 0, used. apply take_as_sub. lia.
  Qed.

  Lemma cut_v6_finish_sub cut s header v :
    Cut.v6_finish cut s header = Ok v ->
    v6_header v = header /\ sub_of (x6_slice (v6_exts v)) s /\ sub_of (ipp_slice (v6_payload v)) s.
  Proof.
    unfold Cut.v6_finish. intros H. binv H pl Epl. binv H hp Ehp. destruct hp as (hp, src).
    assert (Shp : sub_of hp s).
    { destruct ((0 =? pl) && (40 <? s_len s)).
      - binv Ehp n En. binv Ehp p Ep. injection Ehp as <- _. now exists 40, n.
      - cbn zeta in Ehp. destruct (s_len s <? 40 + pl); unfold lerr in Ehp; [discriminate|].
        binv Ehp p Ep. injection Ehp as <- _. now exists 40, pl. }
    binv H nh Enh. binv H x Ex. destruct x as ((exts, pn), payload). injection H as <-.
    cbn [v6_header v6_exts v6_payload ipp_slice].
    assert (Ex' : Cut.exts_from_slice cut nh hp = Ok (exts, pn, payload)).
    { destruct (Cut.exts_from_slice cut nh hp) as [a|[e|c]|b]; try discriminate; exact Ex. }
    apply cut_exts_sub in Ex'. destruct Ex' as (A & B).
    split; [reflexivity|]. split; eapply sub_of_trans; eauto.
  Qed.

  Lemma cut_v6_finish_ok cut s header v :
    in_buf bs s -> sub_of header s -> Cut.v6_finish cut s header = Ok v -> cnet_ok bs (NtIpv6 v).
  Proof.
    intros I Sh H. apply cut_v6_finish_sub in H. destruct H as (E1 & A & B). cbn [cnet_ok]. rewrite E1.
    split; [exact (sub_of_in_buf bs _ _ I Sh)|].
    split; [exact (sub_of_in_buf bs _ _ I A)|exact (sub_of_in_buf bs _ _ I B)].
  Qed.

  Lemma cut_v6_ok cut s v : in_buf bs s -> Cut.v6_from_slice cut s = Ok v -> cnet_ok bs (NtIpv6 v).
  Proof.
    intros I. unfold Cut.v6_from_slice. intros H. binv H header Eh.
    apply ipv6h_wf in Eh. exact (cut_v6_finish_ok cut s header v I (proj2 Eh) H).
  Qed.

  Lemma v4_in_ok v s : in_buf bs s -> ipv4_in v s -> cnet_ok bs (NtIpv4 v).
  Proof.
    intros I (A & B & C). cbn [cnet_ok]. split; [exact (sub_of_in_buf bs _ _ I A)|].
    split; [|exact (sub_of_in_buf bs _ _ I C)].
    destruct (v4_auth v) as [a|]; cbn [optP]; [exact (sub_of_in_buf bs _ _ I B)|exact Logic.I].
  Qed.

  Lemma cut_ip_ok cut s i : in_buf bs s -> Cut.ip_from_slice cut s = Ok i ->
    cnet_ok bs (match i with IpV4 v => NtIpv4 v | IpV6 v => NtIpv6 v end).
  Proof.
    intros I. unfold Cut.ip_from_slice. destruct (s_len s =? 0); unfold lerr; [discriminate|].
    intros H. binv H fb Efb. destruct (N.shiftr fb 4 =? 4).
    { destruct (N.land fb 15 <? 5); [discriminate|]. destruct (s_len s <? N.land fb 15 * 4); [discriminate|].
      binv H header Eh. binv H total Et.
      destruct (total <? N.land fb 15 * 4); [discriminate|]. destruct (s_len s <? total); [discriminate|].
      binv H n En. binv H hp Ehp. binv H v4 Ev. injection H as <-.
      apply ipv4_finish_wf in Ev. destruct Ev as (E1 & E2 & E3).
      assert (Sh : sub_of header s) by (eexists _, _; exact Eh).
      assert (Shp : sub_of hp s) by (eexists _, _; exact Ehp).
      apply (v4_in_ok v4 s I). unfold ipv4_in. rewrite E1. split; [exact Sh|].
      split; [|exact (sub_of_trans _ _ _ E3 Shp)].
      destruct (v4_auth v4) as [a|]; [|exact Logic.I]. destruct E2 as (_ & Sa).
      exact (sub_of_trans _ _ _ Sa Shp). }
    destruct (N.shiftr fb 4 =? 6); [|discriminate]. destruct (s_len s <? 40); [discriminate|].
    binv H header Eh. binv H v6 Ev. injection H as <-.
    apply (cut_v6_finish_ok cut s header v6 I); [eexists _, _; exact Eh|exact Ev].
  Qed.

  Lemma cnet_payload_in n p : cnet_ok bs n -> np n = Some p -> in_buf bs (ipp_slice p).
  Proof.
    destruct n as [v|v|a]; cbn [np cnet_ok]; intros W E; try discriminate; injection E as <-; apply W.
  Qed.

  Lemma cut_arp_ok s a : in_buf bs s -> ArpPacketSlice.from_slice s = Ok a -> cnet_ok bs (NtArp a).
  Proof. intros I Ea. apply arp_wf in Ea. destruct Ea as (_ & Sa). exact (sub_of_in_buf bs _ _ I Sa). Qed.

  Lemma cut_v4_ok s v : in_buf bs s -> Ipv4Slice.from_slice s = Ok v -> cnet_ok bs (NtIpv4 v).
  Proof. intros I Ev. exact (v4_in_ok v s I (proj2 (ipv4_wf _ _ Ev))). Qed.
End CutNet.

Section CutLift.
  Variables (bs : bytes) (cut : bool).

  Lemma cut_v4_net s v : in_buf bs s -> Ipv4Slice.from_slice s = Ok v ->
    cnet_ok bs (NtIpv4 v) /\ in_buf bs (ipp_slice (v4_payload v)).
  Proof. intros I E. pose proof (cut_v4_ok bs s v I E) as W. split; [exact W|apply W]. Qed.

  Lemma cut_slice_ipv6_wf c s r :
    cut_wf bs (c_result c) -> in_buf bs s -> Cut.slice_ipv6 cut c s = Ok r -> cut_wf bs r.
  Proof.
    intros W I. apply (slice_net_wf bs (cnet_ok bs) (Cut.v6_from_slice cut s) NtIpv6 v6_payload); [exact W|].
    intros ip E. pose proof (cut_v6_ok bs cut s ip I E) as Wn. split; [exact Wn|apply Wn].
  Qed.

  Theorem cut_wf_ethernet p : Cut.from_ethernet cut bs = Ok p -> cut_wf bs p.
  Proof.
    exact (ethernet2_wf bs (cnet_ok bs) cut_v4_net (cut_arp_ok bs) (Cut.slice_ipv6 cut)
             (Cut.slice_ether_type_loop cut) (fun _ _ => eq_refl) (fun _ _ _ => eq_refl)
             cut_slice_ipv6_wf _ _ _ p).
  Qed.

  Theorem cut_wf_ether_type et p : Cut.from_ether_type cut et bs = Ok p -> cut_wf bs p.
  Proof.
    exact (ether_payload_wf bs (cnet_ok bs) cut_v4_net (cut_arp_ok bs) (Cut.slice_ipv6 cut)
             (Cut.slice_ether_type_loop cut) (fun _ _ => eq_refl) (fun _ _ _ => eq_refl)
             cut_slice_ipv6_wf et _ p).
  Qed.

  Theorem cut_wf_ip p : Cut.from_ip cut bs = Ok p -> cut_wf bs p.
  Proof.
    pose proof (in_buf_whole bs) as I.
    apply (slice_net_wf bs (cnet_ok bs) (Cut.ip_from_slice cut (mk_slice bs))
             (fun i => match i with IpV4 v => NtIpv4 v | IpV6 v => NtIpv6 v end) IpSlice.payload);
      [apply new_wf|].
    intros ip E. pose proof (cut_ip_ok bs cut _ ip I E) as Wn.
    split; [exact Wn|]. destruct ip; apply Wn.
  Qed.
End CutLift.

Lemma pre_rd16 u I W i : pre u I W -> i + 1 < u -> rd16 I i = rd16 W i.
Proof. intros P H. unfold rd16. rewrite (pre_rd u I W i P), (pre_rd u I W (i + 1) P) by lia. reflexivity. Qed.

Lemma pre_rd32 u I W i : pre u I W -> i + 3 < u -> rd32 I i = rd32 W i.
Proof.
  intros P H. unfold rd32.
  rewrite (pre_rd u I W i P), (pre_rd u I W (i + 1) P), (pre_rd u I W (i + 2) P), (pre_rd u I W (i + 3) P) by lia.
  reflexivity.
Qed.

Lemma pre_rd_arr u I W n : forall i, pre u I W -> i + N.of_nat n <= u -> rd_arr I i n = rd_arr W i n.
Proof.
  induction n as [|n IH]; intros i P H; [reflexivity|]. cbn [rd_arr].
  rewrite (pre_rd u I W i P) by lia. rewrite (IH (i + 1) P) by lia. reflexivity.
Qed.

Lemma pre_mono u v I W : pre u I W -> v <= u -> forall i, i < v -> rdU I i = rdU W i.
Proof. intros P L i Hi. apply (pre_rd u I W i P). lia. Qed.

(* per header: to_header of the struct-side slice = to_header of the slicing-side slice *)
Lemma eth_val_eq h s : pre 14 h s ->
  Ethernet2A.to_header (mkEth2 0 h) = Ethernet2A.to_header (mkEth2 0 s).
Proof.
  intros P. unfold Ethernet2A.to_header, Ethernet2A.source, Ethernet2A.destination, Ethernet2A.ether_type.
  cbn [e2_slice].
  rewrite (pre_rd_arr 14 h s 6 6 P), (pre_rd_arr 14 h s 6 0 P), (pre_rd16 14 h s 12 P) by lia. reflexivity.
Qed.

Lemma vlan_val_eq h s : pre 4 h s -> SingleVlanA.to_header h = SingleVlanA.to_header s.
Proof.
  intros P. unfold SingleVlanA.to_header, SingleVlanA.priority_code_point,
    SingleVlanA.drop_eligible_indicator, SingleVlanA.vlan_identifier, SingleVlanA.ether_type.
  rewrite (pre_rd 4 h s 0 P), (pre_rd 4 h s 1 P), (pre_rd16 4 h s 2 P) by lia. reflexivity.
Qed.

Lemma udp_val_eq h s : pre 8 h s -> UdpA.to_header h = UdpA.to_header s.
Proof.
  intros P. unfold UdpA.to_header, UdpA.source_port, UdpA.destination_port, UdpA.length, UdpA.checksum.
  rewrite (pre_rd16 8 h s 0 P), (pre_rd16 8 h s 2 P), (pre_rd16 8 h s 4 P), (pre_rd16 8 h s 6 P) by lia.
  reflexivity.
Qed.

Lemma icmp6_val_eq h s : pre 8 h s -> Icmpv6A.header h = Icmpv6A.header s.
Proof.
  intros P. unfold Icmpv6A.header, Icmpv6A.icmp_type, Icmpv6A.type_u8, Icmpv6A.code_u8,
    Icmpv6A.bytes5to8, Icmpv6A.checksum.
  rewrite (pre_rd 8 h s 0 P), (pre_rd 8 h s 1 P), (pre_rd 8 h s 4 P), (pre_rd 8 h s 5 P),
    (pre_rd 8 h s 6 P), (pre_rd 8 h s 7 P), (pre_rd16 8 h s 2 P) by lia.
  reflexivity.
Qed.

Lemma icmp4_val_eq h s u t c :
  pre u h s -> rdU s 0 = Ok t -> rdU s 1 = Ok c -> u = (if Icmpv4A.is_ts t c then 20 else 8) ->
  Icmpv4A.header h = Icmpv4A.header s.
Proof.
  intros P Et Ec Hu.
  assert (L8 : 8 <= u) by (destruct (Icmpv4A.is_ts t c); lia).
  assert (R : forall i, i < 8 -> rdU h i = rdU s i) by (intros i Hi; apply (pre_rd u h s i P); lia).
  assert (R16 : forall i, i + 1 < 8 -> rd16 h i = rd16 s i) by (intros i Hi; apply (pre_rd16 u h s i P); lia).
  assert (B : Icmpv4A.bytes5to8 h = Icmpv4A.bytes5to8 s).
  { unfold Icmpv4A.bytes5to8. rewrite (R 4), (R 5), (R 6), (R 7) by lia. reflexivity. }
  assert (U : Icmpv4A.unknown h = Icmpv4A.unknown s).
  { unfold Icmpv4A.unknown, Icmpv4A.type_u8, Icmpv4A.code_u8. rewrite (R 0), (R 1), B by lia. reflexivity. }
  assert (TS : Icmpv4A.is_ts t c = true -> Icmpv4A.timestamp_message h = Icmpv4A.timestamp_message s).
  { intros T. rewrite T in Hu. subst u. unfold Icmpv4A.timestamp_message.
    rewrite (pre_rd16 20 h s 4 P), (pre_rd16 20 h s 6 P), (pre_rd32 20 h s 8 P),
      (pre_rd32 20 h s 12 P), (pre_rd32 20 h s 16 P) by lia. reflexivity. }
  unfold Icmpv4A.header, Icmpv4A.icmp_type, Icmpv4A.type_u8, Icmpv4A.code_u8, Icmpv4A.checksum.
  rewrite (R 0), (R 1), (R16 2), (R16 6), (R 4), B, U by lia. rewrite Et, Ec. cbn [bind].
  unfold Icmpv4A.is_ts in TS.
  destruct ((t =? 13) && (0 =? c)) eqn:A13.
  { rewrite TS; [reflexivity|]. apply andb_prop in A13. destruct A13 as (-> & ->). reflexivity. }
  destruct ((t =? 14) && (0 =? c)) eqn:A14.
  { rewrite TS; [reflexivity|]. apply andb_prop in A14. destruct A14 as (-> & ->).
    now rewrite Bool.orb_true_r. }
  reflexivity.
Qed.

Lemma tcp_fields_eq u h s : pre u h s -> 20 <= u -> TcpFieldsA.fields h = TcpFieldsA.fields s.
Proof.
  intros P L.
  assert (R : forall i, i < 20 -> rdU h i = rdU s i) by (intros i Hi; apply (pre_rd u h s i P); lia).
  unfold TcpFieldsA.fields, TcpFieldsA.source_port, TcpFieldsA.destination_port,
    TcpFieldsA.sequence_number, TcpFieldsA.acknowledgment_number, TcpFieldsA.ns, TcpFieldsA.fin,
    TcpFieldsA.syn, TcpFieldsA.rst, TcpFieldsA.psh, TcpFieldsA.ack, TcpFieldsA.ece, TcpFieldsA.urg,
    TcpFieldsA.cwr, TcpFieldsA.window_size, TcpFieldsA.checksum, TcpFieldsA.urgent_pointer.
  rewrite (pre_rd16 u h s 0 P), (pre_rd16 u h s 2 P), (pre_rd32 u h s 4 P), (pre_rd32 u h s 8 P) by lia.
  rewrite (R 12), (R 13), (R 14), (R 15), (R 16), (R 17), (R 18), (R 19) by lia. reflexivity.
Qed.

Lemma tcp_val_eq h s hl : pre hl h s -> wf_tcph h ->
  TcpHeaderSliceA.to_header h = TcpSliceA.to_header (hl, s).
Proof.
  intros P (L20 & L60 & b & E12 & Lb). pose proof (pre_len _ _ _ P) as Lh.
  pose proof P as (_ & _ & Ls).
  unfold TcpHeaderSliceA.to_header, TcpSliceA.to_header. cbn [fst snd].
  rewrite (tcp_fields_eq hl h s P) by lia.
  unfold TcpHeaderSliceA.options, TcpSliceA.options, TcpFieldsA.data_offset. cbn [fst snd].
  rewrite E12. cbn [bind]. rewrite tcp_do_hl, <- Lb, Lh.
  rewrite (idx_range_subU h 20 hl) by lia. rewrite (idx_range_subU s 20 hl) by lia.
  rewrite (pre_subU hl h s 20 (hl - 20) P) by lia. reflexivity.
Qed.

(* what equal views say, component by component *)
Lemma views_inv hp sp v : hview_of hp = Ok v -> conv sp = Ok v ->
  option_map win_of (h_link hp) = match sp_link sp with Some l => conv_link l | None => None end /\
  map hview_ext (h_exts hp) = map conv_ext (sp_exts sp) /\
  match h_net hp, sp_net sp with
  | Some n, Some n' => hview_net n = Ok (conv_net n')
  | None, None => True
  | _, _ => False
  end /\
  match h_transport hp, sp_transport sp with
  | Some t, Some t' => exists r, conv_tr t' = Ok r /\ hview_tr t = fst r
  | None, None => True
  | _, _ => False
  end.
Proof.
  unfold hview_of, conv. intros H1 H2.
  binv H1 n En. binv H2 tp Etp. rewrite <- H1 in H2. injection H2 as E1 E2 E3 E4 E5.
  split; [now rewrite E1|]. split; [now rewrite E2|]. split.
  - destruct (h_net hp) as [hn|].
    + binv En vn Evn. injection En as <-. destruct (sp_net sp) as [sn|]; cbn [option_map] in E3; [|discriminate].
      injection E3 as <-. exact Evn.
    + injection En as <-. destruct (sp_net sp); [discriminate|exact I].
  - destruct (sp_transport sp) as [t'|].
    + binv Etp r Er. injection Etp as <-. cbn [fst] in E4.
      destruct (h_transport hp) as [t|]; cbn [option_map] in E4; [|discriminate].
      injection E4 as E4. exists r. split; [exact Er|now rewrite E4].
    + assert (F : fst tp = None).
      { destruct (sp_net sp) as [[x|x|x]|]; try (injection Etp as <-; reflexivity).
        binv Etp e Ee. injection Etp as <-. reflexivity. }
      rewrite F in E4. destruct (h_transport hp); [discriminate|exact I].
Qed.

Section Layers.
  Variable bs : bytes.

  Ltac wineq := apply (in_buf_win_eq bs); auto; unfold win_of in *; congruence.

  Lemma link_vals hl sl :
    optP (fun h => in_buf bs h /\ s_len h = 14) hl -> optP (link_prov bs) sl ->
    option_map win_of hl = match sl with Some l => conv_link l | None => None end ->
    option_map (fun h => Ethernet2A.to_header (mkEth2 0 h)) hl =
    match sl with Some l => sval_link l | None => None end.
  Proof.
    intros Hh Hs E. destruct sl as [[s|h w|e]|]; cbn [conv_link sval_link optP link_prov] in *;
      destruct hl as [eth|]; cbn [option_map optP] in *; try discriminate; try reflexivity.
    - destruct Hh as (Ih & Lh). destruct Hs as (src & Isrc & Es).
      apply eth2_plain_wf in Es. destruct Es as (-> & (_ & L14)). cbn [e2_fcs_len e2_slice] in L14.
      injection E as Eo El. f_equal. apply eth_val_eq. apply (in_buf_pre bs); auto; lia.
    - exfalso. destruct Hh as (Ih & Lh). destruct Hs as (src & Isrc & Es).
      apply sll_wf in Es. destruct Es as (((L16 & _) & _) & _). cbn [fst] in L16.
      injection E as Eo El. lia.
  Qed.

  Lemma ext_vals a b :
    in_buf bs (hext_slice a) -> ext_prov bs b -> hview_ext a = conv_ext b -> hval_ext a = sval_ext b.
  Proof.
    intros Ia Pb E. destruct a as [h|h], b as [s|m]; cbn [hview_ext conv_ext hval_ext sval_ext hext_slice ext_prov] in *;
      try discriminate.
    - destruct Pb as (src & Isrc & Es). apply vlan_wf in Es. destruct Es as (-> & Ws). unfold wf_vlan in Ws.
      injection E as Eo El. f_equal. apply vlan_val_eq. apply (in_buf_pre bs); auto.
    - destruct Pb as (src & Isrc & Es). apply macsec_wf in Es. destruct Es as (_ & Sh & _).
      injection E as E. f_equal. f_equal. pose proof (sub_of_in_buf bs _ _ Isrc Sh) as Im. wineq.
  Qed.

  Lemma exts_vals : forall hx sx,
    Forall (fun x => in_buf bs (hext_slice x)) hx -> Forall (ext_prov bs) sx ->
    map hview_ext hx = map conv_ext sx -> map hval_ext hx = map sval_ext sx.
  Proof.
    induction hx as [|a hx IH]; intros sx Fh Fs E; destruct sx as [|b sx]; cbn [map] in *; try discriminate;
      [reflexivity|].
    injection E as E1 E2. inversion Fh as [|? ? Ia Fh']; subst. inversion Fs as [|? ? Pb Fs']; subst.
    f_equal; [now apply ext_vals|now apply IH].
  Qed.

  Lemma net_vals n n' :
    Forall (in_buf bs) (hnet_slices n) -> cnet_ok bs n' -> hview_net n = Ok (conv_net n') ->
    hval_net n = sval_net n' /\
    match n, n' with HnIp (IhV6 h _), NtIpv6 v => h = v6_header v | _, _ => True end.
  Proof.
    intros Fn Cn E. destruct n as [[h a|h x]|a]; cbn [hview_net] in E.
    - destruct n' as [v|v|a']; cbn [conv_net] in E; try discriminate.
      injection E as E1 E2 E3.
      cbn [hnet_slices] in Fn. inversion Fn as [|? ? Ih Fa]; subst. destruct Cn as (Ch & Ca & _).
      split; [|exact I]. cbn [hval_net sval_net].
      assert (Eh : h = v4_header v) by wineq. subst h. f_equal.
      destruct a as [a|], (v4_auth v) as [a'|]; cbn [option_map] in *; try discriminate; [|reflexivity].
      injection E3 as E3a E3b. inversion Fa as [|? ? Ia _]; subst. cbn [optP] in Ca.
      f_equal. f_equal. wineq.
    - binv E nh Enh. binv E fr Efr.
      destruct n' as [v|v|a']; cbn [conv_net] in E; try discriminate.
      injection E; intros.
      cbn [hnet_slices] in Fn. inversion Fn as [|? ? Ih Fa]; subst. destruct Cn as (Ch & _).
      assert (Eh : h = v6_header v) by wineq. subst h.
      split; reflexivity.
    - destruct n' as [v|v|a']; cbn [conv_net] in E; try discriminate. injection E; intros.
      cbn [hnet_slices] in Fn. inversion Fn as [|? ? Ia _]; subst. cbn [cnet_ok] in Cn.
      split; [|exact I]. cbn [hval_net sval_net]. f_equal. f_equal. wineq.
  Qed.

  Lemma tr_vals t t' r :
    htr_ok bs t -> transport_prov bs t' -> conv_tr t' = Ok r -> hview_tr t = fst r ->
    hval_tr t = sval_tr t'.
  Proof.
    intros (It & Wt) Pt Ec Ev.
    destruct t' as [s|hl s|s|s]; cbn [conv_tr transport_prov] in *.
    - injection Ec as <-. cbn [fst] in Ev. destruct t as [h|h|h|h]; cbn [hview_tr] in Ev; try discriminate.
      injection Ev as Eo El. destruct Pt as (src & Isrc & Es). apply udp_wf in Es. destruct Es as (W8 & Ss).
      unfold wf_udp in W8. cbn [hval_tr sval_tr htr_slice] in *. f_equal. apply udp_val_eq.
      apply (in_buf_pre bs); auto. exact (sub_of_in_buf bs _ _ Isrc Ss).
    - injection Ec as <-. cbn [fst] in Ev. destruct t as [h|h|h|h]; cbn [hview_tr] in Ev; try discriminate.
      injection Ev as Eo El. destruct Pt as (src & Isrc & Es). apply tcp_wf in Es.
      destruct Es as ((W1 & W2 & W3) & Ess). cbn [fst snd] in *. subst src.
      cbn [hval_tr sval_tr htr_slice] in *. f_equal. apply tcp_val_eq; [|exact Wt].
      apply (in_buf_pre bs); auto.
    - binv Ec hl Ehl. injection Ec as <-. cbn [fst] in Ev.
      destruct t as [h|h|h|h]; cbn [hview_tr] in Ev; try discriminate.
      injection Ev as Eo El. destruct Pt as (src & Isrc & Es). apply icmp4_wf in Es.
      destruct Es as (-> & (L8 & t0 & c0 & Et & Ec & Hts)).
      unfold Icmpv4Acc.header_len in Ehl. rewrite Et, Ec in Ehl. cbn [bind] in Ehl. injection Ehl as Ehl.
      cbn [hval_tr sval_tr htr_slice] in *. f_equal.
      apply (icmp4_val_eq h src hl t0 c0); [|exact Et|exact Ec|symmetry; exact Ehl].
      apply (in_buf_pre bs); auto. rewrite <- Ehl. unfold Icmpv4A.is_ts in Hts.
      destruct (((t0 =? 13) || (t0 =? 14)) && (0 =? c0)) eqn:T; [rewrite (Hts eq_refl)|]; lia.
    - injection Ec as <-. cbn [fst] in Ev. destruct t as [h|h|h|h]; cbn [hview_tr] in Ev; try discriminate.
      injection Ev as Eo El. destruct Pt as (src & Isrc & Es). apply icmp6_wf in Es. destruct Es as (-> & W8).
      unfold wf_icmp6 in W8. cbn [hval_tr sval_tr htr_slice] in *. f_equal. apply icmp6_val_eq.
      apply (in_buf_pre bs); auto.
  Qed.

  (* equal views + provenance on both sides => equal values; and the IPv6 header is the same slice *)
  Lemma vals_of_views hp sp v :
    hp_ok bs hp -> cut_wf bs sp -> hview_of hp = Ok v -> conv sp = Ok v ->
    hvals_of_h hp = hvals_of_s sp.
  Proof.
    intros (H1 & H2 & H3 & H4 & _) (C1 & C2 & C3 & C4) Hv Cv.
    destruct (views_inv _ _ _ Hv Cv) as (V1 & V2 & V3 & V4).
    unfold hvals_of_h, hvals_of_s. f_equal.
    - now apply link_vals.
    - now apply exts_vals.
    - destruct (h_net hp) as [n|], (sp_net sp) as [n'|]; try contradiction; [|reflexivity].
      cbn [option_map optP] in *. f_equal. apply net_vals; [apply H3|exact C3|exact V3].
    - destruct (h_transport hp) as [t|], (sp_transport sp) as [t'|]; try contradiction; [|reflexivity].
      cbn [option_map optP] in *. destruct V4 as (r & Er & Ev). f_equal. now apply (tr_vals t t' r).
  Qed.
End Layers.

Lemma hagree_vals bs h s :
  hagree h s -> (forall hp, h = Ok hp -> hp_ok bs hp) -> (forall sp, s = Ok sp -> cut_wf bs sp) ->
  vals_agree h s.
Proof.
  intros (A & NB) Hh Hs hp sp -> ->. cbn [hvres_of_h hvres_of_s] in A, NB.
  destruct (hview_of hp) as [v|e|b] eqn:Ev; destruct (conv sp) as [v'|e'|b'] eqn:Ec; try discriminate;
    [|exfalso; exact (HdrSlots2.hview_of_not_err _ _ Ev)|exfalso; exact (NB b eq_refl)].
  injection A as <-. exact (vals_of_views bs hp sp v (Hh hp eq_refl) (Hs sp eq_refl) Ev Ec).
Qed.

(* F11 inputs are rejected by both families, so there is nothing to compare *)
Theorem hdr_vals_eq bs et : bytes_ok bs ->
  vals_agree (PacketHeaders.from_ethernet_slice bs) (Cut.from_ethernet true bs) /\
  vals_agree (PacketHeaders.from_ether_type et bs) (Cut.from_ether_type true et bs) /\
  vals_agree (PacketHeaders.from_ip_slice bs) (Cut.from_ip true bs).
Proof.
  intros Hok. split; [|split].
  - apply (hagree_vals bs); [now apply hdr_agree_ethernet|apply hp_ok_ethernet|apply cut_wf_ethernet].
  - apply (hagree_vals bs); [now apply hdr_agree_ether_type|apply hp_ok_ether_type|apply cut_wf_ether_type].
  - destruct (F11 bs) eqn:Hf.
    + destruct (hdr_f11_both_err bs Hf) as ((e & E) & _). intros hp sp H. rewrite E in H. discriminate.
    + apply (hagree_vals bs); [now apply hdr_agree_ip|apply hp_ok_ip|apply cut_wf_ip].
Qed.
