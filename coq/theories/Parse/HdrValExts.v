(* Parse/HdrValExts.v -- the struct Ipv6Extensions.  `IpSlice::to_header` (net/ip_slice.rs; model
   LaxAccess.IpSliceToHeaderA.v6_exts_to_header) re-decodes the extension area stored in an
   Ipv6Slice with the STRUCT decoder Ipv6Extensions::from_slice.  Proved here: on the extension
   area of the cut slicing result it returns exactly the struct that PacketHeaders decoded
   (same six slots: same windows, same bytes), for all three strict entry points.
     struct_exts_pre   Ipv6Extensions::from_slice on a prefix of its input that contains
                       everything it consumed returns the same struct and next header;
     struct_consumed   it consumed exts6_len x bytes (from HdrProofs2.exts_agree);
   that the IPv6 struct of a PacketHeaders result is the outcome of Ipv6Extensions::from_slice on
   a window of the input directly behind the 40 byte header is part of HdrVal.hp_ok. *)
From Coq Require Import ZArith Lia ZifyN ZifyBool List.
From EP Require Import Base.Bytes Parse.Types Parse.Slices Parse.Cursor Parse.View Parse.Repr
  Parse.Access Parse.AccessProofs Parse.LaxAccess Parse.LaxAccessToHeader
  Parse.HdrModel Parse.HdrView Parse.HdrCut Parse.HdrProofs
  Parse.HdrProofs2 Parse.HdrProofs3 Parse.HdrSlots Parse.HdrSlots2 Parse.HdrVal Parse.HdrValStruct
  Parse.HdrValProofs.
Import ListNotations.
Import SlicedPacketCursor.
Local Open Scope N_scope.

Lemma idx_from_pre u I W l W1 :
  pre u I W -> l <= u -> HdrModel.idx_from W l = Ok W1 ->
  exists I1, HdrModel.idx_from I l = Ok I1 /\ pre (u - l) I1 W1.
Proof.
  intros P Hl H. pose proof (pre_len _ _ _ P) as LI. pose proof P as (_ & _ & Lu).
  unfold HdrModel.idx_from in *. destruct (l <=? s_len W) eqn:E; [|discriminate]. injection H as <-.
  rewrite LI. destruct (l <=? u) eqn:E2; [|lia]. eexists. split; [reflexivity|].
  apply (pre_rest u I W l); auto.
  - rewrite <- LI. apply drop_as_sub. lia.
  - apply drop_as_sub. lia.
Qed.

Lemma idx_from_len W l W1 : HdrModel.idx_from W l = Ok W1 -> s_len W1 = s_len W - l /\ l <= s_len W.
Proof.
  unfold HdrModel.idx_from. destruct (l <=? s_len W) eqn:E; [|discriminate]. intros H. injection H as <-.
  split; [|lia]. unfold s_len. cbn [snd]. apply len_drop.
Qed.

Lemma raw_step_len base W h W1 nh1 :
  Ipv6Extensions.raw_step base W = Ok (h, W1, nh1) ->
  8 <= s_len h /\ s_len W1 = s_len W - s_len h /\ s_len h <= s_len W.
Proof.
  unfold Ipv6Extensions.raw_step. intros H. binv H off Eoff. binv H sl Esl. apply map_len_err_inv in Esl.
  binv H rest' Er. binv H nh Enh. binv H h' Eh. injection H as <- <- <-.
  apply raw_to_header_id in Eh. subst h'. apply idx_from_len in Er. destruct Er as (A & B).
  destruct (raw_inv _ _ Esl) as (b & _ & Hsl & _).
  pose proof (AccessProofs.subU_inv _ _ _ _ Hsl) as (_ & Lsl & _). split; [lia|]. split; assumption.
Qed.

Lemma raw_step_pre u I W base baseI h W1 nh1 :
  Ipv6Extensions.raw_step base W = Ok (h, W1, nh1) -> pre u I W -> s_len h <= u ->
  s_len I <= s_len baseI ->
  exists I1, Ipv6Extensions.raw_step baseI I = Ok (h, I1, nh1) /\ pre (u - s_len h) I1 W1.
Proof.
  unfold Ipv6Extensions.raw_step. intros H P Lu Lb. binv H off Eoff. binv H sl Esl.
  apply map_len_err_inv in Esl. binv H rest' Er. binv H nh Enh. binv H h' Eh. injection H as <- <- <-.
  pose proof (raw_to_header_id _ _ Eh) as Ehh. subst h'.
  destruct (idx_from_pre u I W (s_len sl) rest' P Lu Er) as (I1 & EI1 & P1).
  exists I1. split; [|exact P1].
  rewrite subN_ok by lia. cbn [bind]. rewrite (raw_trunc u I W sl P Esl Lu). cbn [map_len_err bind].
  rewrite EI1. cbn [bind]. rewrite Enh. cbn [bind]. rewrite Eh. reflexivity.
Qed.

Lemma struct_loop_len fuel : forall base x W nh x' nh' r',
  Ipv6Extensions.loop fuel base x W nh = Ok (x', nh', r') -> s_len r' <= s_len W.
Proof.
  induction fuel as [|f IH]; intros base x W nh x' nh' r' H; [discriminate|].
  cbn [Ipv6Extensions.loop] in H.
  assert (Stop : forall (a : exts6 * N * slice), Ok (x, nh, W) = Ok a -> s_len (snd a) <= s_len W).
  { intros a E. injection E as <-. cbn [snd]. lia. }
  assert (Raw : forall xx, (let* r := Ipv6Extensions.raw_step base W in
                            let '(h, rest', nh1) := r in
                            Ipv6Extensions.loop f base (xx h) rest' nh1) = Ok (x', nh', r') ->
                           s_len r' <= s_len W).
  { intros xx E. binv E r Er. destruct r as ((h, W1), nh1). apply raw_step_len in Er.
    apply IH in E. lia. }
  destruct (nh =? IPN_HOP_BY_HOP); [discriminate|].
  destruct (nh =? IPN_DEST_OPTIONS).
  { destruct (x_route x) as [rt|].
    - destruct (is_some (x_fdest x)); [exact (Stop _ H)|].
      exact (Raw (fun h => mkExts6 (x_hbh x) (x_dest x) (Some rt) (Some h) (x_frag x) (x_auth x)) H).
    - destruct (is_some (x_dest x)); [exact (Stop _ H)|].
      exact (Raw (fun h => mkExts6 (x_hbh x) (Some h) None (x_fdest x) (x_frag x) (x_auth x)) H). }
  destruct (nh =? IPN_ROUTE).
  { destruct (is_some (x_route x)); [exact (Stop _ H)|].
    exact (Raw (fun h => mkExts6 (x_hbh x) (x_dest x) (Some h) None (x_frag x) (x_auth x)) H). }
  destruct (nh =? IPN_FRAG).
  { destruct (is_some (x_frag x)); [exact (Stop _ H)|].
    binv H off Eoff. binv H sl Esl. apply map_len_err_inv in Esl. binv H rest' Er. binv H nh1 Enh.
    apply idx_from_len in Er. apply IH in H. lia. }
  destruct (nh =? IPN_AUTH).
  { destruct (is_some (x_auth x)); [exact (Stop _ H)|].
    binv H off Eoff. binv H sl Esl. binv H rest' Er. binv H nh1 Enh. binv H h Eh.
    apply idx_from_len in Er. apply IH in H. lia. }
  exact (Stop _ H).
Qed.

Lemma struct_loop_pre fuel : forall base x W nh x' nh' r',
  Ipv6Extensions.loop fuel base x W nh = Ok (x', nh', r') ->
  forall u I baseI fuel2,
    pre u I W -> s_len W - s_len r' <= u -> s_len I <= s_len baseI -> (N.to_nat u < fuel2)%nat ->
    exists rI, Ipv6Extensions.loop fuel2 baseI x I nh = Ok (x', nh', rI).
Proof.
  induction fuel as [|f IH]; intros base x W nh x' nh' r' H u I baseI fuel2 P Lu Lb Hf; [discriminate|].
  destruct fuel2 as [|f2]; [lia|].
  pose proof (pre_len _ _ _ P) as LI.
  cbn [Ipv6Extensions.loop] in H |- *.
  assert (Stop : forall (a : exts6 * N * slice), Ok (x, nh, W) = Ok (x', nh', r') ->
            exists rI, Ok (x, nh, I) = Ok (x', nh', rI)).
  { intros _ E. injection E as <- <- <-. eexists; reflexivity. }
  assert (Raw : forall xx,
            (let* r := Ipv6Extensions.raw_step base W in
             let '(h, rest', nh1) := r in
             Ipv6Extensions.loop f base (xx h) rest' nh1) = Ok (x', nh', r') ->
            exists rI,
              (let* r := Ipv6Extensions.raw_step baseI I in
               let '(h, rest', nh1) := r in
               Ipv6Extensions.loop f2 baseI (xx h) rest' nh1) = Ok (x', nh', rI)).
  { intros xx E. binv E r Er. destruct r as ((h, W1), nh1).
    pose proof (raw_step_len _ _ _ _ _ Er) as (L8 & LW1 & Lh).
    pose proof (struct_loop_len _ _ _ _ _ _ _ _ E) as Lr.
    assert (Lhu : s_len h <= u) by lia.
    destruct (raw_step_pre u I W base baseI h W1 nh1 Er P Lhu Lb) as (I1 & EI1 & P1).
    rewrite EI1. cbn [bind].
    apply (IH _ _ _ _ _ _ _ E (u - s_len h) I1 baseI f2 P1); try lia.
    pose proof (pre_len _ _ _ P1). lia. }
  destruct (nh =? IPN_HOP_BY_HOP); [discriminate|].
  destruct (nh =? IPN_DEST_OPTIONS).
  { destruct (x_route x) as [rt|].
    - destruct (is_some (x_fdest x)); [exact (Stop (x, nh, W) H)|].
      exact (Raw (fun h => mkExts6 (x_hbh x) (x_dest x) (Some rt) (Some h) (x_frag x) (x_auth x)) H).
    - destruct (is_some (x_dest x)); [exact (Stop (x, nh, W) H)|].
      exact (Raw (fun h => mkExts6 (x_hbh x) (Some h) None (x_fdest x) (x_frag x) (x_auth x)) H). }
  destruct (nh =? IPN_ROUTE).
  { destruct (is_some (x_route x)); [exact (Stop (x, nh, W) H)|].
    exact (Raw (fun h => mkExts6 (x_hbh x) (x_dest x) (Some h) None (x_frag x) (x_auth x)) H). }
  destruct (nh =? IPN_FRAG).
  { destruct (is_some (x_frag x)); [exact (Stop (x, nh, W) H)|].
    binv H off Eoff. binv H sl Esl. apply map_len_err_inv in Esl. binv H W1 Er. binv H nh1 Enh.
    pose proof (idx_from_len _ _ _ Er) as (LW1 & Lh).
    destruct (frag_inv _ _ Esl) as (Hsl & _).
    pose proof (AccessProofs.subU_inv _ _ _ _ Hsl) as (_ & Lsl & _).
    pose proof (struct_loop_len _ _ _ _ _ _ _ _ H) as Lr.
    assert (Lhu : s_len sl <= u) by lia.
    destruct (idx_from_pre u I W (s_len sl) W1 P Lhu Er) as (I1 & EI1 & P1).
    rewrite subN_ok by lia. cbn [bind]. rewrite (frag_trunc u I W sl P Esl Lhu). cbn [map_len_err bind].
    rewrite EI1. cbn [bind]. rewrite Enh. cbn [bind].
    apply (IH _ _ _ _ _ _ _ H (u - s_len sl) I1 baseI f2 P1); try lia.
    pose proof (pre_len _ _ _ P1). lia. }
  destruct (nh =? IPN_AUTH).
  { destruct (is_some (x_auth x)); [exact (Stop (x, nh, W) H)|].
    binv H off Eoff. binv H sl Esl.
    assert (Esl' : IpAuthHeaderSlice.from_slice W = Ok sl).
    { destruct (IpAuthHeaderSlice.from_slice W) as [a|[e|c]|b]; try discriminate; exact Esl. }
    binv H W1 Er. binv H nh1 Enh. binv H h Eh.
    pose proof (idx_from_len _ _ _ Er) as (LW1 & Lh).
    destruct (ah_inv _ _ Esl') as (p & _ & _ & Hsl & _).
    pose proof (AccessProofs.subU_inv _ _ _ _ Hsl) as (_ & Lsl & _).
    pose proof (struct_loop_len _ _ _ _ _ _ _ _ H) as Lr.
    assert (Lhu : s_len sl <= u) by lia.
    destruct (idx_from_pre u I W (s_len sl) W1 P Lhu Er) as (I1 & EI1 & P1).
    rewrite subN_ok by lia. cbn [bind]. rewrite (ah_trunc u I W sl P Esl' Lhu). cbn [bind].
    rewrite EI1. cbn [bind]. rewrite Enh. cbn [bind]. rewrite Eh. cbn [bind].
    apply (IH _ _ _ _ _ _ _ H (u - s_len sl) I1 baseI f2 P1); try lia.
    pose proof (pre_len _ _ _ P1). lia. }
  exact (Stop (x, nh, W) H).
Qed.

(* Ipv6Extensions::from_slice on a prefix of its input that contains everything it consumed
   returns the same struct *)
Theorem struct_exts_pre nh0 hp x nh' r u I :
  Ipv6Extensions.from_slice nh0 hp = Ok (x, nh', r) -> pre u I hp -> s_len hp - s_len r <= u ->
  exists rI, Ipv6Extensions.from_slice nh0 I = Ok (x, nh', rI).
Proof.
  unfold Ipv6Extensions.from_slice. intros H P Lu. pose proof (pre_len _ _ _ P) as LI.
  binv H st Est. destruct st as ((x0, rest0), nhx).
  assert (Fuel : (N.to_nat (s_len I) < S (length (snd I)))%nat) by (rewrite s_len_length; lia).
  destruct (IPN_HOP_BY_HOP =? nh0).
  - binv Est sl Esl. binv Est rest1 Er. binv Est nh1 Enh. binv Est h Ehd. injection Est as <- <- <-.
    pose proof (idx_from_len _ _ _ Er) as (LW1 & Lh).
    destruct (raw_inv _ _ Esl) as (b & _ & Hsl & _).
    pose proof (AccessProofs.subU_inv _ _ _ _ Hsl) as (_ & Lsl & _).
    pose proof (struct_loop_len _ _ _ _ _ _ _ _ H) as Lr.
    assert (Lhu : s_len sl <= u) by lia.
    destruct (idx_from_pre u I hp (s_len sl) rest1 P Lhu Er) as (I1 & EI1 & P1).
    rewrite (raw_trunc u I hp sl P Esl Lhu). cbn [bind]. rewrite EI1. cbn [bind]. rewrite Enh. cbn [bind].
    rewrite Ehd. cbn [bind].
    pose proof (pre_len _ _ _ P1) as LI1.
    apply (struct_loop_pre _ _ _ _ _ _ _ _ H (u - s_len sl) I1 I _ P1); try lia.
  - injection Est as <- <- <-. cbn [bind].
    apply (struct_loop_pre _ _ _ _ _ _ _ _ H u I I _ P); try lia.
Qed.

Lemma struct_consumed nh0 hp x nh' r : bytes_ok (snd hp) ->
  Ipv6Extensions.from_slice nh0 hp = Ok (x, nh', r) ->
  s_len hp - s_len r = exts6_len x /\ exts6_len x <= s_len hp.
Proof.
  intros Hok Hh. pose proof (exts_agree nh0 hp Hok) as A. rewrite Hh in A. unfold exts_rel in A.
  destruct (Cut.exts_from_slice true nh0 hp) as [[[xs nh''] r']|e|b] eqn:Hs; try contradiction.
  destruct A as (-> & -> & _ & Win & _ & _).
  unfold Cut.exts_from_slice in Hs. binv Hs st Est. destruct st as (rest0, nh00).
  binv Hs w Ew. destruct w as ((restf, nxf), frf).
  binv Hs used Eu. apply subN_inv in Eu. destruct Eu as (Lr & ->).
  binv Hs sl Esl. destruct (s_len hp - s_len restf <=? s_len hp) eqn:Eus; [|discriminate]. injection Esl as <-.
  injection Hs as <- _ <-. cbn [x6_slice] in Win.
  assert (PI : pre (s_len hp - s_len restf) (fst hp, take (s_len hp - s_len restf) (snd hp)) hp)
    by (apply pre_take; lia).
  apply pre_len in PI. unfold win_of in Win. rewrite PI in Win.
  pose proof (f_equal snd Win) as W2. cbn [snd] in W2. lia.
Qed.

(* IpSlice::to_header of the cut slicing result rebuilds the struct Ipv6Extensions *)
Definition exts_to_header_agree (h : res hpacket) (s : res sliced_packet) : Prop :=
  forall hp hd x, h = Ok hp -> h_net hp = Some (HnIp (IhV6 hd x)) ->
  exists sp v, s = Ok sp /\ sp_net sp = Some (NtIpv6 v) /\ v6_header v = hd /\
               IpSliceToHeaderA.v6_exts_to_header v = Ok x.

Lemma exts_to_header_of bs h s : bytes_ok bs ->
  slots_in_order h s -> (forall p, h = Ok p -> hp_ok bs p) -> (forall sp, s = Ok sp -> cut_wf bs sp) ->
  exts_to_header_agree h s.
Proof.
  intros Hok SO HP CW hp hd x Eh En.
  destruct (SO hp hd x Eh En) as (sp & v & first & l & nh_end & Es & Esn & Ehd & Efirst & _ & _ & _ & Win).
  exists sp, v. split; [exact Es|]. split; [exact Esn|]. split; [exact Ehd|].
  pose proof (HP hp Eh) as (_ & _ & P & _). rewrite En in P.
  destruct P as (_ & nh0 & hp0 & nh' & r & I0 & Enh0 & Off0 & Run).
  pose proof (CW sp Es) as (_ & _ & C3 & _). rewrite Esn in C3. cbn [optP cnet_ok] in C3.
  destruct C3 as (_ & Ix & _).
  destruct (struct_consumed _ _ _ _ _ (in_buf_bytes_ok bs hp0 Hok I0) Run) as (Cons & Lc).
  unfold win_of in Win. injection Win as Wo Wl.
  assert (P : pre (exts6_len x) (x6_slice (v6_exts v)) hp0) by (apply (in_buf_pre bs); auto; lia).
  destruct (struct_exts_pre _ _ _ _ _ _ _ Run P ltac:(lia)) as (rI & RunI).
  unfold IpSliceToHeaderA.v6_exts_to_header, Ipv6HeaderA.next_header. rewrite Ehd, Enh0. cbn [bind].
  rewrite RunI. reflexivity.
Qed.

Theorem hdr_exts_to_header bs et : bytes_ok bs ->
  exts_to_header_agree (PacketHeaders.from_ethernet_slice bs) (Cut.from_ethernet true bs) /\
  exts_to_header_agree (PacketHeaders.from_ether_type et bs) (Cut.from_ether_type true et bs) /\
  exts_to_header_agree (PacketHeaders.from_ip_slice bs) (Cut.from_ip true bs).
Proof.
  intros Hok. destruct (hdr_slots_in_order bs et Hok) as (S1 & S2 & S3).
  split; [|split].
  - apply (exts_to_header_of bs); auto; [apply hp_ok_ethernet|apply cut_wf_ethernet].
  - apply (exts_to_header_of bs); auto; [apply hp_ok_ether_type|apply cut_wf_ether_type].
  - apply (exts_to_header_of bs); auto; [apply hp_ok_ip|apply cut_wf_ip].
Qed.
