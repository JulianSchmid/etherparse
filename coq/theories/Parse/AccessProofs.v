(* The accessors, conversions and iterators of Parse/Access.v never hit `Bug` on a
   value produced by the corresponding constructor of Parse/Slices.v, and every
   sub-slice they hand back lies inside the slice it was taken from.  Only the length
   facts established by the constructors are used (the per-type invariants wf_T); the
   conversions whose unwrap depends on a value range additionally need "a byte is < 256".
   Then: the strict cursor establishes the invariants for every component of a SlicedPacket
   (`sliced_wf`, `packet_wf`), the stored extension chain can be walked again without Bug, and
   the statements Props/C01.v and Props/C02.v refer to. *)
From EP Require Import Base.Bytes Base.Lists Parse.Types Parse.Slices Parse.Cursor Parse.Repr Parse.Access.
From Coq Require Import ZArith Lia ZifyN ZifyBool.
Import SlicedPacketCursor.

Local Open Scope N_scope.

Definition okr {A} (r : res A) : Prop := exists x, r = Ok x.
Definition nobug {A} (r : res A) : Prop := forall b, r <> Bug b.

Lemma okr_nobug {A} (r : res A) : okr r -> nobug r.
Proof. intros (x & ->) b. discriminate. Qed.

Lemma nobug_run {A} (r : res A) : nobug r -> nobug (run r).
Proof. destruct r as [x|e|b0]; cbn; intros H b E; try discriminate. apply (H b0). now injection E as ->. Qed.

Lemma okr_run {A} (r : res A) : okr r -> okr (run r).
Proof. intros (x & ->). exists tt. reflexivity. Qed.

Lemma run_okr {A} (r : res A) : okr (run r) -> okr r.
Proof. destruct r; cbn; intros (x & E); try discriminate. eexists; reflexivity. Qed.

Lemma okr_Ok {A} (x : A) : okr (Ok x).
Proof. eexists; reflexivity. Qed.

Lemma okr_map {A B} (r : res A) (f : A -> B) : okr r -> okr (let* x := r in Ok (f x)).
Proof. intros (x & ->). apply okr_Ok. Qed.

Lemma okr_if {A} (c : bool) (a b : res A) :
  (c = true -> okr a) -> (c = false -> okr b) -> okr (if c then a else b).
Proof. destruct c; auto. Qed.

Lemma bind_inv {A B} (r : res A) (f : A -> res B) y :
  bind r f = Ok y -> exists x, r = Ok x /\ f x = Ok y.
Proof. destruct r; cbn; intros H; try discriminate. eauto. Qed.

Lemma map_len_err_inv {A} f (r : res A) x : map_len_err f r = Ok x -> r = Ok x.
Proof. destruct r as [a|[e|c]|b]; cbn; intros H; try discriminate; exact H. Qed.

(* a remapping of errors leaves an Ok result alone (`| r => r` is compiled to the
   identity on the remaining constructors) *)
Lemma remap_inv {A} (r : res A) (k : slice_error -> res A) x :
  (forall e, k e <> Ok x) ->
  match r with Ok a => Ok a | Err e => k e | Bug b => Bug b end = Ok x -> r = Ok x.
Proof. destruct r as [a|e|b]; intros K H; [exact H|now apply K in H|discriminate]. Qed.

Lemma if_err_inv {A} (c : bool) e (r : res A) y : (if c then Err e else r) = Ok y -> c = false /\ r = Ok y.
Proof. destruct c; [discriminate|auto]. Qed.

(* inversion of `H : ... = Ok y` along the text of a constructor: binv for a bind
   (names the value and its equation), finv for a test that returns an error *)
Ltac finv H E := apply if_err_inv in H; destruct H as (E & H).
Ltac binv H x E := apply bind_inv in H; destruct H as (x & E & H).

Lemma rdU_ok s i : i < s_len s -> exists x, rdU s i = Ok x.
Proof.
  intros H. unfold rdU. destruct (rd_lt_Some (snd s) i H) as (v & ->). eexists; reflexivity.
Qed.

Lemma rdU_inv s i x : rdU s i = Ok x -> i < s_len s.
Proof.
  unfold rdU. destruct (rd (snd s) i) eqn:E; [|discriminate]. intros _.
  now apply rd_Some_lt in E.
Qed.

Lemma rd16_ok s i : i + 1 < s_len s -> exists x, rd16 s i = Ok x.
Proof.
  intros H. unfold rd16.
  destruct (rdU_ok s i) as (a & ->); [lia|]. destruct (rdU_ok s (i + 1)) as (b & ->); [lia|].
  eexists; reflexivity.
Qed.

Lemma rd16_inv s i x : rd16 s i = Ok x -> i + 1 < s_len s.
Proof.
  unfold rd16. destruct (rdU s i); cbn; try discriminate.
  destruct (rdU s (i + 1)) eqn:E; cbn; try discriminate. intros _. now apply rdU_inv in E.
Qed.

Lemma rd32_ok s i : i + 3 < s_len s -> exists x, rd32 s i = Ok x.
Proof.
  intros H. unfold rd32.
  destruct (rdU_ok s i) as (a & ->); [lia|]. destruct (rdU_ok s (i + 1)) as (b & ->); [lia|].
  destruct (rdU_ok s (i + 2)) as (c & ->); [lia|]. destruct (rdU_ok s (i + 3)) as (d & ->); [lia|].
  eexists; reflexivity.
Qed.

Lemma rd_arr_ok s n : forall i, i + N.of_nat n <= s_len s -> exists x, rd_arr s i n = Ok x.
Proof.
  induction n as [|n IH]; intros i H; cbn [rd_arr]; [eexists; reflexivity|].
  destruct (rdU_ok s i) as (a & ->); [lia|]. cbn [bind].
  destruct (IH (i + 1)) as (r & ->); [lia|]. eexists; reflexivity.
Qed.

Lemma subU_ok s k n :
  k + n <= s_len s ->
  exists s', subU s k n = Ok s' /\ s_len s' = n /\ s_off s' = s_off s + k.
Proof.
  intros H. unfold subU. destruct (k + n <=? s_len s) eqn:E; [|lia].
  eexists. split; [reflexivity|]. unfold s_len, s_off in *. cbn [fst snd].
  rewrite len_take, len_drop. split; lia.
Qed.

Lemma subU_inv s k n s' :
  subU s k n = Ok s' ->
  k + n <= s_len s /\ s_len s' = n /\ s_off s' = s_off s + k /\
  s' = (fst s + k, take n (drop k (snd s))).
Proof.
  unfold subU. destruct (k + n <=? s_len s) eqn:E; [|discriminate].
  intros X. injection X as <-. unfold s_len, s_off in *. cbn [fst snd].
  rewrite len_take, len_drop. repeat split; lia.
Qed.

Lemma subU_rd s k n s' i : subU s k n = Ok s' -> i < n -> rdU s' i = rdU s (k + i).
Proof.
  intros H Hi. apply subU_inv in H. destruct H as (H1 & _ & _ & ->).
  unfold rdU, rd, take, drop. cbn [snd].
  rewrite nth_error_firstn_lt by lia. rewrite nth_error_skipn.
  replace (N.to_nat k + N.to_nat i)%nat with (N.to_nat (k + i)) by lia. reflexivity.
Qed.

Lemma subU_rd16 s k n s' i : subU s k n = Ok s' -> i + 1 < n -> rd16 s' i = rd16 s (k + i).
Proof.
  intros H Hi. unfold rd16.
  rewrite (subU_rd s k n s' i H) by lia. rewrite (subU_rd s k n s' (i + 1) H) by lia.
  now rewrite N.add_assoc.
Qed.

Lemma subU_bytes_ok s k n s' : subU s k n = Ok s' -> bytes_ok (snd s) -> bytes_ok (snd s').
Proof.
  intros H Hok. apply subU_inv in H. destruct H as (_ & _ & _ & ->). cbn [snd].
  now apply bytes_ok_take, bytes_ok_drop.
Qed.

Lemma drop_as_sub s l : l <= s_len s -> subU s l (s_len s - l) = Ok (fst s + l, drop l (snd s)).
Proof.
  intros H. unfold subU. destruct (l + (s_len s - l) <=? s_len s) eqn:E; [|lia].
  f_equal. f_equal. unfold take, drop. apply firstn_all2. rewrite skipn_length.
  unfold s_len, len in *. lia.
Qed.

Lemma take_as_sub s u : u <= s_len s -> subU s 0 u = Ok (fst s, take u (snd s)).
Proof.
  intros H. unfold subU. destruct (0 + u <=? s_len s) eqn:E; [|lia]. now rewrite N.add_0_r.
Qed.

Lemma rdU_byte s i x : bytes_ok (snd s) -> rdU s i = Ok x -> x < 256.
Proof.
  unfold rdU. destruct (rd (snd s) i) eqn:E; [|discriminate]. intros Hok X. injection X as <-.
  eapply rd_ok; eauto.
Qed.

Lemma subN_okr a b : b <= a -> subN a b = Ok (a - b).
Proof. apply subN_ok. Qed.

Lemma idx_range_subU s a b : a <= b -> b <= s_len s -> idx_range s a b = subU s a (b - a).
Proof.
  intros H1 H2. unfold idx_range, subU.
  destruct ((a <=? b) && (b <=? s_len s)) eqn:E; [|lia].
  destruct (a + (b - a) <=? s_len s) eqn:E2; [reflexivity|lia].
Qed.

Lemma idx_range_inv s a b w : idx_range s a b = Ok w -> a <= b /\ b <= s_len s /\ subU s a (b - a) = Ok w.
Proof.
  unfold idx_range. destruct ((a <=? b) && (b <=? s_len s)) eqn:E; [|discriminate].
  intros X. assert (a <= b) by lia. assert (b <= s_len s) by lia.
  repeat split; auto. rewrite <- X. unfold subU.
  destruct (a + (b - a) <=? s_len s) eqn:E2; [reflexivity|lia].
Qed.

Definition sub_of (a b : slice) : Prop := exists k n, subU b k n = Ok a.

(* the arithmetic content: the window of a lies inside the window of b *)
Definition inside (a b : slice) : Prop :=
  s_off b <= s_off a /\ s_off a + s_len a <= s_off b + s_len b.

Lemma sub_of_inside a b : sub_of a b -> inside a b.
Proof.
  intros (k & n & H). apply subU_inv in H. destruct H as (H1 & H2 & H3 & _).
  unfold inside. lia.
Qed.

Lemma sub_of_refl s : sub_of s s.
Proof.
  exists 0, (s_len s). unfold subU. destruct (0 + s_len s <=? s_len s) eqn:E; [|lia].
  destruct s as (o, l). unfold s_len. cbn [fst snd]. rewrite N.add_0_r.
  change (drop 0 l) with l. now rewrite take_len.
Qed.

Lemma subU_subU s k n s' k' n' s'' :
  subU s k n = Ok s' -> subU s' k' n' = Ok s'' -> subU s (k + k') n' = Ok s''.
Proof.
  intros H1 H2. apply subU_inv in H1. destruct H1 as (A1 & A2 & A3 & ->).
  apply subU_inv in H2. destruct H2 as (B1 & B2 & B3 & ->). cbn [fst snd].
  unfold subU. destruct (k + k' + n' <=? s_len s) eqn:E; [|lia].
  f_equal. f_equal; [lia|]. unfold take, drop.
  rewrite firstn_skipn_firstn by lia. rewrite skipn_skipn_add.
  f_equal. f_equal. lia.
Qed.

Lemma sub_of_trans a b c : sub_of a b -> sub_of b c -> sub_of a c.
Proof.
  intros (k1 & n1 & H1) (k2 & n2 & H2). exists (k2 + k1), n1. eapply subU_subU; eauto.
Qed.

Lemma sub_of_len a b : sub_of a b -> s_len a <= s_len b.
Proof. intros (k & n & H). apply subU_inv in H. lia. Qed.

Lemma sub_of_bytes_ok a b : sub_of a b -> bytes_ok (snd b) -> bytes_ok (snd a).
Proof. intros (k & n & H). eapply subU_bytes_ok; eauto. Qed.

(* a header cut off the front of s: its length, and its reads are those of s *)
Lemma prefix_hdr s l h :
  subU s 0 l = Ok h ->
  s_len h = l /\ sub_of h s /\
  (forall i, i < l -> rdU h i = rdU s i) /\ (forall i, i + 1 < l -> rd16 h i = rd16 s i).
Proof.
  intros H. pose proof (subU_inv _ _ _ _ H) as (_ & L & _).
  split; [exact L|]. split; [now exists 0, l|]. split; intros i Hi.
  - now rewrite (subU_rd s 0 l h i H).
  - now rewrite (subU_rd16 s 0 l h i H).
Qed.

Definition in_buf (bs : bytes) (s : slice) : Prop := exists pos lim, repr bs s pos lim.

Lemma subU_repr bs s pos lim k n s' :
  repr bs s pos lim -> subU s k n = Ok s' -> repr bs s' (pos + k) (pos + k + n).
Proof.
  intros R H. pose proof (subU_inv _ _ _ _ H) as (H1 & _).
  rewrite (repr_len _ _ _ _ R) in H1.
  destruct (repr_subU bs s pos lim k n R H1) as (s2 & E & R2).
  rewrite H in E. injection E as ->. exact R2.
Qed.

Lemma sub_of_in_buf bs a b : in_buf bs b -> sub_of a b -> in_buf bs a.
Proof.
  intros (pos & lim & R) (k & n & H). eexists _, _. eapply subU_repr; eauto.
Qed.

Lemma in_buf_whole bs : in_buf bs (mk_slice bs).
Proof. eexists _, _. apply repr_whole. Qed.

Lemma in_buf_bounds bs s : in_buf bs s -> s_off s + s_len s <= len bs.
Proof.
  intros (pos & lim & R). rewrite (repr_off _ _ _ _ R), (repr_len _ _ _ _ R).
  destruct R as (_ & A & B). lia.
Qed.

Lemma B_nth bs i : (N.to_nat i < length bs)%nat -> nth_error bs (N.to_nat i) = Some (WireSpec.B bs i).
Proof. intros H. unfold WireSpec.B. now apply nth_error_nth_lt. Qed.

Lemma in_buf_bytes_ok bs s : bytes_ok bs -> in_buf bs s -> bytes_ok (snd s).
Proof.
  intros Hok (pos & lim & (-> & _)). cbn [snd]. now apply bytes_ok_take, bytes_ok_drop.
Qed.

(* a returned window: the accessor succeeds and the result is a sub-slice of `parent` *)
Definition win_ok (parent : slice) (r : res slice) : Prop :=
  exists w, r = Ok w /\ sub_of w parent.

Lemma win_ok_okr parent r : win_ok parent r -> okr r.
Proof. intros (w & -> & _). eexists; reflexivity. Qed.

(* oksteps drives a goal about a chain of binds forward: each primitive read or
   sub-slice succeeds because its bound follows by lia from the hypotheses, and is
   replaced by its value (okstep); then each remaining test is split (okcase).
   oksolve closes `okr` goals that way, winsolve `win_ok` goals. *)
Ltac okread ok :=
  let x := fresh "x" in let E := fresh "E" in destruct ok as (x & E); [lia|]; rewrite E; cbn [bind].
Ltac okstep :=
  match goal with
  | H : ?t = Ok _ |- context [?t] => rewrite H; cbn [bind]; cbv beta iota
  | |- context [rdU ?s ?i] => okread (rdU_ok s i)
  | |- context [rd16 ?s ?i] => okread (rd16_ok s i)
  | |- context [rd32 ?s ?i] => okread (rd32_ok s i)
  | |- context [rd_arr ?s ?i ?n] =>
      let x := fresh "x" in let E := fresh "E" in
      destruct (rd_arr_ok s n i) as (x & E); [cbn; lia|]; rewrite E; clear E; cbn [bind]
  | |- context [subN ?a ?b] => rewrite (subN_ok a b) by lia; cbn [bind]
  | |- context [subU ?s ?k ?n] =>
      let x := fresh "w" in let E := fresh "E" in let L := fresh "L" in let O := fresh "O" in
      destruct (subU_ok s k n) as (x & E & L & O); [lia|]; rewrite E; cbn [bind]
  | |- context [idx_range ?s ?a ?b] =>
      rewrite (idx_range_subU s a b) by lia
  end.

Ltac okcase :=
  match goal with
  | |- context [if negb ?c then _ else _] =>
      let E := fresh "C" in destruct c eqn:E; try rewrite E in *; cbn [bind negb] in *; cbv beta iota in *
  | |- context [if ?c then _ else _] =>
      let E := fresh "C" in destruct c eqn:E; try rewrite E in *; cbn [bind] in *; cbv beta iota in *
  end.

Ltac oksteps := cbn [bind]; repeat okstep; repeat (okcase; repeat okstep).
Ltac okfin := first [ eexists; reflexivity | exfalso; lia ].
Ltac oksolve := oksteps; okfin.
Ltac winfin :=
  first [ eexists; split; [reflexivity| first [ eexists _, _; eassumption | apply sub_of_refl ] ]
        | exfalso; lia ].
Ltac winsolve := oksteps; winfin.

(* prove `Forall nobug [run a1; ...; run an]`: an element about which the context
   holds `nobug ai`, `okr ai` or `win_ok _ ai` is closed by that hypothesis, the others
   by unfolding the accessor (the tactic unf) and oksolve *)
Ltac forall_ok unf :=
  repeat (apply Forall_cons;
          [apply nobug_run;
           first [assumption
                 |apply okr_nobug; first [assumption|eapply win_ok_okr; eassumption|unf; oksolve]]|]);
  apply Forall_nil.
Ltac forall_win unf :=
  repeat (apply Forall_cons; [unfold win_ok; unf; winsolve|]); apply Forall_nil.

Definition wf_eth2 (e : eth2_slice) : Prop :=
  (e2_fcs_len e = 0 \/ e2_fcs_len e = 4) /\ 14 + e2_fcs_len e <= s_len (e2_slice e).

Lemma eth2_plain_wf s r : Ethernet2Slice.from_slice_without_fcs s = Ok r -> r = s /\ wf_eth2 (mkEth2 0 r).
Proof.
  unfold Ethernet2Slice.from_slice_without_fcs. intros H. finv H E. injection H as <-.
  unfold wf_eth2. cbn. repeat split; auto. lia.
Qed.

Lemma eth2_wf_without_fcs s e : Ethernet2A.from_slice_without_fcs s = Ok e -> wf_eth2 e /\ e2_slice e = s.
Proof.
  unfold Ethernet2A.from_slice_without_fcs. intros H. binv H r E. injection H as <-.
  apply eth2_plain_wf in E. destruct E as (-> & W). auto.
Qed.

Lemma eth2_wf_with_fcs s e : Ethernet2A.from_slice_with_crc32_fcs s = Ok e -> wf_eth2 e /\ e2_slice e = s.
Proof.
  unfold Ethernet2A.from_slice_with_crc32_fcs. intros H. finv H E. injection H as <-.
  unfold wf_eth2. cbn. repeat split; auto. lia.
Qed.

Ltac unf_eth2 :=
  unfold Ethernet2A.debug, Ethernet2A.payload, Ethernet2A.to_header, Ethernet2A.destination, Ethernet2A.source,
    Ethernet2A.ether_type, Ethernet2A.fcs, Ethernet2A.header_slice, Ethernet2A.payload_slice.

Lemma eth2_accessors_ok e : wf_eth2 e -> Forall nobug (Ethernet2A.accessors e).
Proof.
  intros (F & L). unfold Ethernet2A.accessors. forall_ok unf_eth2.
Qed.

Lemma eth2_windows_ok e : wf_eth2 e -> Forall (win_ok (e2_slice e)) (Ethernet2A.windows e).
Proof.
  intros (F & L). unfold Ethernet2A.windows. forall_win unf_eth2.
Qed.

Definition wf_vlan (s : slice) : Prop := 4 <= s_len s.

Lemma vlan_wf s v : SingleVlanSlice.from_slice s = Ok v -> v = s /\ wf_vlan v.
Proof.
  unfold SingleVlanSlice.from_slice. intros H. finv H E. injection H as <-.
  split; [reflexivity|]. unfold wf_vlan. lia.
Qed.

Ltac unf_vlan :=
  unfold SingleVlanA.debug, SingleVlanA.payload, SingleVlanA.to_header, SingleVlanA.priority_code_point,
    SingleVlanA.drop_eligible_indicator, SingleVlanA.vlan_identifier, SingleVlanA.ether_type,
    SingleVlanA.header_slice, SingleVlanA.payload_slice.

Lemma vlan_accessors_ok s : wf_vlan s -> Forall nobug (SingleVlanA.accessors s).
Proof. unfold wf_vlan. intros L. unfold SingleVlanA.accessors. forall_ok unf_vlan. Qed.

Lemma vlan_windows_ok s : wf_vlan s -> Forall (win_ok s) (SingleVlanA.windows s).
Proof. unfold wf_vlan. intros L. unfold SingleVlanA.windows. forall_win unf_vlan. Qed.

Definition wf_sllh (h : slice) : Prop :=
  s_len h = 16 /\
  exists pt hw pr v, rd16 h 0 = Ok pt /\ pt <= 7 /\ rd16 h 2 = Ok hw /\ rd16 h 14 = Ok pr /\
                     LinuxSll.protocol_type_try_from hw pr = Ok v.

Lemma sllh_wf s h : LinuxSll.header_from_slice s = Ok h -> wf_sllh h /\ sub_of h s.
Proof.
  unfold LinuxSll.header_from_slice. intros H. finv H E. binv H pt E0. binv H pt' Ept.
  unfold LinuxSll.packet_type_try_from in Ept. destruct (pt <=? 7) eqn:L7; [|discriminate].
  binv H hw E2. binv H pr E14. binv H v Ev.
  destruct (prefix_hdr _ _ _ H) as (L & S & _ & R). split; [|exact S].
  split; [exact L|]. exists pt, hw, pr, v. rewrite !R by lia. repeat split; auto. lia.
Qed.

Definition wf_sll (x : slice * slice) : Prop := wf_sllh (fst x) /\ 16 <= s_len (snd x).

Lemma idx_prefix_subU s n : n <= s_len s -> (fst s, take n (snd s)) = (fst s + 0, take n (drop 0 (snd s))).
Proof. intros _. now rewrite N.add_0_r. Qed.

Lemma sll_wf s x : LinuxSll.from_slice s = Ok x -> wf_sll x /\ snd x = s /\ sub_of (fst x) s.
Proof.
  unfold LinuxSll.from_slice. intros H. finv H E. binv H h16 E16. binv H h Eh. injection H as <-.
  destruct (16 <=? s_len s); [|discriminate]. injection E16 as <-.
  apply sllh_wf in Eh. destruct Eh as (W & S). split; [split; [exact W|cbn; lia]|]. split; [reflexivity|].
  eapply sub_of_trans; [exact S|]. exists 0, 16. apply take_as_sub. lia.
Qed.

Ltac unf_sllh :=
  unfold LinuxSllHeaderA.to_header, LinuxSllHeaderA.protocol_type, LinuxSllHeaderA.sender_address,
    LinuxSllHeaderA.packet_type, LinuxSllHeaderA.arp_hardware_type,
    LinuxSllHeaderA.sender_address_valid_length, LinuxSllHeaderA.sender_address_full.

Lemma sllh_sender_address_ok h : s_len h = 16 -> win_ok h (LinuxSllHeaderA.sender_address h).
Proof.
  intros L. unfold win_ok. unf_sllh. okstep.
  destruct (N.min_spec (6 + x) (6 + 8)) as [[A ->]|[A ->]]; winsolve.
Qed.

Lemma sll_packet_type_ok pt : pt <= 7 -> LinuxSll.packet_type_try_from pt = Ok pt.
Proof. intros H. unfold LinuxSll.packet_type_try_from. destruct (pt <=? 7) eqn:X; [reflexivity|lia]. Qed.

Lemma sllh_accessors_ok h : wf_sllh h -> Forall nobug (LinuxSllHeaderA.accessors h).
Proof.
  intros (L & pt & hw & pr & v & E0 & Ept & E2 & E14 & Ev).
  pose proof (sll_packet_type_ok pt Ept) as Pt.
  pose proof (sllh_sender_address_ok h L) as SA.
  unfold LinuxSllHeaderA.accessors. forall_ok unf_sllh.
Qed.

Lemma sllh_windows_ok h : wf_sllh h -> Forall (win_ok h) (LinuxSllHeaderA.windows h).
Proof. intros (L & _). repeat constructor. now apply sllh_sender_address_ok. Qed.

Ltac unf_sll :=
  unfold LinuxSllA.debug, LinuxSllA.payload, LinuxSllA.to_header, LinuxSllA.payload_slice, LinuxSllA.header_slice;
  unf_sllh.

Lemma sll_accessors_ok x : wf_sll x -> Forall nobug (LinuxSllA.accessors x).
Proof.
  intros (W & L16). unfold LinuxSllA.accessors. apply Forall_app. split; [now apply sllh_accessors_ok|].
  destruct W as (L & pt & hw & pr & v & E0 & Ept & E2 & E14 & Ev).
  pose proof (sll_packet_type_ok pt Ept) as Pt.
  forall_ok unf_sll.
Qed.

Lemma sll_windows_ok x : wf_sll x -> Forall (win_ok (snd x)) (LinuxSllA.windows x).
Proof. intros (W & L16). unfold LinuxSllA.windows. forall_win unf_sll. Qed.

(* the model of Parse/Slices.v used by the cursor agrees with the accessor model *)
Lemma sll_protocol_type_same h : LinuxSll.protocol_type h = LinuxSllHeaderA.protocol_type h.
Proof. reflexivity. Qed.

Definition wf_macsech (h : slice) : Prop :=
  exists t, rdU h 0 = Ok t /\
            s_len h = 6 + (if N.land t 12 =? 0 then 2 else 0) + (if bitset t 32 then 8 else 0).

Lemma macsech_wf s h : Macsec.header_from_slice s = Ok h -> wf_macsech h /\ sub_of h s.
Proof.
  unfold Macsec.header_from_slice. intros H. finv H E. binv H t E0. finv H Ev. binv H u Eu.
  cbv zeta in H. finv H El.
  destruct (prefix_hdr _ _ _ H) as (L & S & R & _). split; [|exact S].
  exists t. rewrite R by lia. auto.
Qed.

Ltac unf_macsech :=
  unfold MacsecHeaderA.to_header, MacsecHeaderA.expected_payload_len, MacsecHeaderA.header_len,
    MacsecHeaderA.next_ether_type, MacsecHeaderA.sci, MacsecHeaderA.ptype;
  unfold MacsecHeaderA.sci_present, MacsecHeaderA.packet_nr, MacsecHeaderA.short_len, MacsecHeaderA.an,
    MacsecHeaderA.is_unmodified, MacsecHeaderA.userdata_changed, MacsecHeaderA.encrypted,
    MacsecHeaderA.tci_scb, MacsecHeaderA.endstation_id, MacsecHeaderA.tci_an_raw.

(* a bit of t inside the mask 12 is set: t & 12 is not 0 *)
Lemma land_sub_12 t m : N.land 12 m = m -> bitset t m = true -> N.land t 12 =? 0 = false.
Proof.
  unfold bitset. intros M H. apply N.eqb_neq. intros Z.
  assert (X : N.land (N.land t 12) m = 0) by (rewrite Z; reflexivity).
  rewrite <- N.land_assoc, M in X. rewrite X in H. discriminate.
Qed.
Lemma land_4_12 t : bitset t 4 = true -> N.land t 12 =? 0 = false.
Proof. exact (land_sub_12 t 4 eq_refl). Qed.
Lemma land_8_12 t : bitset t 8 = true -> N.land t 12 =? 0 = false.
Proof. exact (land_sub_12 t 8 eq_refl). Qed.
Lemma land_none_12 t : bitset t 8 = false -> bitset t 4 = false -> N.land t 12 =? 0 = true.
Proof.
  unfold bitset. intros H8 H4. apply N.eqb_eq.
  assert (A8 : N.land t 8 = 0) by (destruct (N.land t 8 =? 0) eqn:X; [lia|discriminate]).
  assert (A4 : N.land t 4 = 0) by (destruct (N.land t 4 =? 0) eqn:X; [lia|discriminate]).
  change 12 with (N.lor 8 4). rewrite N.land_lor_distr_r, A8, A4. reflexivity.
Qed.

Lemma macsech_accessors_ok h : wf_macsech h -> Forall nobug (MacsecHeaderA.accessors h).
Proof.
  intros (t & E0 & L).
  assert (L6 : 6 <= s_len h) by lia.
  (* the accessors that read behind byte 5 *)
  assert (P : okr (MacsecHeaderA.ptype h)).
  { unf_macsech. rewrite E0. cbn [bind].
    destruct (bitset t 8) eqn:B8; [destruct (bitset t 4); eexists; reflexivity|].
    destruct (bitset t 4) eqn:B4; [eexists; reflexivity|].
    rewrite (land_none_12 t B8 B4) in L. destruct (bitset t 32) eqn:B32; oksolve. }
  assert (S : okr (MacsecHeaderA.sci h)).
  { unf_macsech. rewrite E0. cbn [bind]. destruct (bitset t 32) eqn:B32; [|eexists; reflexivity].
    assert (14 <= s_len h) by (destruct (N.land t 12 =? 0); lia). oksolve. }
  assert (Nx : okr (MacsecHeaderA.next_ether_type h)).
  { unf_macsech. rewrite E0. cbn [bind].
    destruct (N.land t 12 =? 0) eqn:B12; cbn [negb]; [|eexists; reflexivity].
    destruct (bitset t 32) eqn:B32; oksolve. }
  assert (T : okr (MacsecHeaderA.to_header h)).
  { unfold MacsecHeaderA.to_header. destruct P as (p & ->). destruct S as (sc & ->). cbn [bind].
    unf_macsech. oksolve. }
  unfold MacsecHeaderA.accessors. forall_ok unf_macsech.
Qed.

Definition wf_macsec (m : macsec_slice) : Prop := wf_macsech (ms_header m).

Lemma macsec_accessors_ok m : wf_macsec m -> Forall nobug (MacsecA.accessors m).
Proof.
  intros W. unfold MacsecA.accessors. apply Forall_app. split; [now apply macsech_accessors_ok|].
  pose proof (macsech_accessors_ok _ W) as F. unfold MacsecHeaderA.accessors in F.
  repeat constructor.
  - apply nobug_run, okr_nobug. unfold MacsecA.ether_payload. destruct (ms_payload m); eexists; reflexivity.
  - unfold MacsecA.next_ether_type. rewrite Forall_forall in F. apply F. cbn. tauto.
Qed.

Definition wf_arp (a : slice) : Prop :=
  exists hw pr, rdU a 4 = Ok hw /\ rdU a 5 = Ok pr /\ s_len a = 8 + hw * 2 + pr * 2.

Lemma arp_wf s a : ArpPacketSlice.from_slice s = Ok a -> wf_arp a /\ sub_of a s.
Proof.
  unfold ArpPacketSlice.from_slice. intros H. finv H E. binv H hw E4. binv H pr E5.
  cbv zeta in H. finv H El.
  destruct (prefix_hdr _ _ _ H) as (L & S & R & _). split; [|exact S].
  exists hw, pr. rewrite !R by lia. auto.
Qed.

Ltac unf_arp :=
  unfold ArpPacketA.to_packet, ArpPacketA.target_protocol_addr, ArpPacketA.target_hw_addr,
    ArpPacketA.sender_protocol_addr, ArpPacketA.sender_hw_addr, ArpPacketA.operation,
    ArpPacketA.proto_addr_type, ArpPacketA.hw_addr_type, ArpPacketA.proto_addr_size, ArpPacketA.hw_addr_size.

Lemma arp_accessors_ok a : wf_arp a -> Forall nobug (ArpPacketA.accessors a).
Proof. intros (hw & pr & E4 & E5 & L). unfold ArpPacketA.accessors. forall_ok unf_arp. Qed.

Lemma arp_windows_ok a : wf_arp a -> Forall (win_ok a) (ArpPacketA.windows a).
Proof. intros (hw & pr & E4 & E5 & L). unfold ArpPacketA.windows. forall_win unf_arp. Qed.

Lemma arp_conversions_ok a : wf_arp a -> bytes_ok (snd a) -> Forall nobug (ArpPacketA.conversions a).
Proof.
  intros (hw & pr & E4 & E5 & L) Hok.
  pose proof (rdU_byte a 4 hw Hok E4) as B4. pose proof (rdU_byte a 5 pr Hok E5) as B5.
  unfold ArpPacketA.conversions. forall_ok ltac:(unf_arp; unfold ArpPacketA.copy255).
Qed.

Definition wf_ipv4h (h : slice) : Prop := 20 <= s_len h /\ s_len h <= 60.

Lemma land15_le b : N.land b 15 <= 15.
Proof.
  change 15 with (N.ones 4) at 1. rewrite N.land_ones.
  pose proof (N.mod_lt b (2 ^ 4) ltac:(discriminate)). change (2 ^ 4) with 16 in *. lia.
Qed.

Lemma ipv4h_wf s h : Ipv4HeaderSlice.from_slice s = Ok h -> wf_ipv4h h /\ sub_of h s.
Proof.
  unfold Ipv4HeaderSlice.from_slice. intros H. finv H E. binv H v E0. cbv zeta in H.
  finv H Ev. finv H Ei. finv H El.
  destruct (prefix_hdr _ _ _ H) as (L & S & _). split; [|exact S].
  pose proof (land15_le v). unfold wf_ipv4h. lia.
Qed.

Ltac unf_ipv4h :=
  unfold Ipv4HeaderA.to_header, Ipv4HeaderA.is_fragmenting_payload, Ipv4HeaderA.payload_len;
  unfold Ipv4HeaderA.options, Ipv4HeaderA.destination, Ipv4HeaderA.source, Ipv4HeaderA.header_checksum,
    Ipv4HeaderA.protocol, Ipv4HeaderA.ttl, Ipv4HeaderA.fragments_offset, Ipv4HeaderA.more_fragments,
    Ipv4HeaderA.dont_fragment, Ipv4HeaderA.identification, Ipv4HeaderA.total_len, Ipv4HeaderA.ecn,
    Ipv4HeaderA.dcp, Ipv4HeaderA.ihl, Ipv4HeaderA.version.

Lemma ipv4h_payload_len_nobug h : wf_ipv4h h -> nobug (Ipv4HeaderA.payload_len h).
Proof.
  intros (L1 & L2). unf_ipv4h. okstep.
  destruct (s_len h mod 65536 <=? x) eqn:C.
  - apply okr_nobug. rewrite subN_ok by lia. eexists; reflexivity.
  - intros b. discriminate.
Qed.

Lemma ipv4h_to_header_options_ok o : s_len o <= 40 -> okr (Ipv4HeaderA.to_header_options o).
Proof.
  intros L. unfold Ipv4HeaderA.to_header_options. rewrite N.mod_small by lia.
  destruct (40 <? s_len o) eqn:C; [lia|]. rewrite N.eqb_refl. eexists; reflexivity.
Qed.

Lemma ipv4h_accessors_ok h : wf_ipv4h h -> Forall nobug (Ipv4HeaderA.accessors h).
Proof.
  intros W. pose proof (ipv4h_payload_len_nobug h W) as PL. destruct W as (L1 & L2).
  assert (T : okr (Ipv4HeaderA.to_header h)).
  { unf_ipv4h. oksteps. destruct (ipv4h_to_header_options_ok w) as (o & ->); [lia|]. eexists; reflexivity. }
  unfold Ipv4HeaderA.accessors. forall_ok unf_ipv4h.
Qed.

Lemma ipv4h_windows_ok h : wf_ipv4h h -> Forall (win_ok h) (Ipv4HeaderA.windows h).
Proof. intros (L1 & L2). unfold Ipv4HeaderA.windows. forall_win unf_ipv4h. Qed.

Definition wf_ah (h : slice) : Prop :=
  exists p, rdU h 1 = Ok p /\ 1 <= p /\ s_len h = (p + 2) * 4.

Lemma ah_inv s h :
  IpAuthHeaderSlice.from_slice s = Ok h ->
  exists p, rdU s 1 = Ok p /\ 1 <= p /\ subU s 0 ((p + 2) * 4) = Ok h /\ (p + 2) * 4 <= s_len s.
Proof.
  unfold IpAuthHeaderSlice.from_slice. intros H. finv H E. binv H p E1. cbv zeta in H.
  finv H Ep. finv H El. exists p. repeat split; auto; lia.
Qed.

Lemma ah_wf s h : IpAuthHeaderSlice.from_slice s = Ok h -> wf_ah h /\ sub_of h s.
Proof.
  intros H. destruct (ah_inv _ _ H) as (p & E1 & P1 & Hsl & _).
  destruct (prefix_hdr _ _ _ Hsl) as (L & S & R & _). split; [|exact S].
  exists p. rewrite R by lia. auto.
Qed.

Ltac unf_ah :=
  unfold IpAuthHeaderA.to_header, IpAuthHeaderA.raw_icv, IpAuthHeaderA.sequence_number, IpAuthHeaderA.spi,
    IpAuthHeaderA.next_header, idx_from.

Lemma ah_accessors_ok h : wf_ah h -> Forall nobug (IpAuthHeaderA.accessors h).
Proof. intros (p & E1 & P1 & L). unfold IpAuthHeaderA.accessors. forall_ok unf_ah. Qed.

Lemma ah_windows_ok h : wf_ah h -> Forall (win_ok h) (IpAuthHeaderA.windows h).
Proof. intros (p & E1 & P1 & L). unfold IpAuthHeaderA.windows. forall_win unf_ah. Qed.

(* the unwrap of IpAuthHeader::new: ICV length (p+2)*4-12 = (p-1)*4 is a multiple
   of 4 and at most 1016 because p is a byte *)
Lemma ah_to_header_ok h : wf_ah h -> bytes_ok (snd h) -> okr (IpAuthHeaderA.to_header h).
Proof.
  intros (p & E1 & P1 & L) Hok. pose proof (rdU_byte h 1 p Hok E1) as B.
  unf_ah. oksteps.
  unfold IpAuthHeaderA.header_new, IpAuthHeaderA.MAX_ICV_LEN.
  assert (Lw : s_len w = (p - 1) * 4) by lia. rewrite Lw.
  destruct (1016 <? (p - 1) * 4) eqn:C1; [lia|].
  rewrite N.mod_mul by discriminate. rewrite N.eqb_refl. cbn [negb]. eexists; reflexivity.
Qed.

Lemma ah_conversions_ok h : wf_ah h -> bytes_ok (snd h) -> Forall nobug (IpAuthHeaderA.conversions h).
Proof. intros W Hok. repeat constructor. now apply nobug_run, okr_nobug, ah_to_header_ok. Qed.

Definition wf_ipv6h (h : slice) : Prop := s_len h = 40.

Lemma ipv6h_wf s h : Ipv6HeaderSlice.from_slice s = Ok h -> wf_ipv6h h /\ sub_of h s.
Proof.
  unfold Ipv6HeaderSlice.from_slice. intros H. finv H E. binv H v E0. cbv zeta in H. finv H Ev.
  destruct (prefix_hdr _ _ _ H) as (L & S & _). now split.
Qed.

Ltac unf_ipv6h :=
  unfold Ipv6HeaderA.to_header, Ipv6HeaderA.dscp, Ipv6HeaderA.ecn;
  unfold Ipv6HeaderA.destination, Ipv6HeaderA.source, Ipv6HeaderA.hop_limit, Ipv6HeaderA.next_header,
    Ipv6HeaderA.payload_length, Ipv6HeaderA.flow_label, Ipv6HeaderA.traffic_class, Ipv6HeaderA.version.

Lemma ipv6h_accessors_ok h : wf_ipv6h h -> Forall nobug (Ipv6HeaderA.accessors h).
Proof. unfold wf_ipv6h. intros L. unfold Ipv6HeaderA.accessors. forall_ok unf_ipv6h. Qed.

Definition wf_raw (h : slice) : Prop := exists b, rdU h 1 = Ok b /\ s_len h = (b + 1) * 8.

Lemma raw_inv s h :
  Ipv6RawExtHeaderSlice.from_slice s = Ok h ->
  exists b, rdU s 1 = Ok b /\ subU s 0 ((b + 1) * 8) = Ok h /\ (b + 1) * 8 <= s_len s.
Proof.
  unfold Ipv6RawExtHeaderSlice.from_slice. intros H. finv H E. binv H b E1. cbv zeta in H. finv H El.
  exists b. unfold rdU. destruct (rd (snd s) 1); [|discriminate]. repeat split; auto. lia.
Qed.

Lemma raw_wf s h : Ipv6RawExtHeaderSlice.from_slice s = Ok h -> wf_raw h /\ sub_of h s.
Proof.
  intros H. destruct (raw_inv _ _ H) as (b & E1 & Hsl & _).
  destruct (prefix_hdr _ _ _ Hsl) as (L & S & R & _). split; [|exact S].
  exists b. rewrite R by lia. auto.
Qed.

Ltac unf_raw :=
  unfold Ipv6RawExtHeaderA.to_header, Ipv6RawExtHeaderA.payload, Ipv6RawExtHeaderA.next_header.

Lemma raw_accessors_ok h : wf_raw h -> Forall nobug (Ipv6RawExtHeaderA.accessors h).
Proof. intros (b & E1 & L). unfold Ipv6RawExtHeaderA.accessors. forall_ok unf_raw. Qed.

Lemma raw_windows_ok h : wf_raw h -> Forall (win_ok h) (Ipv6RawExtHeaderA.windows h).
Proof. intros (b & E1 & L). unfold Ipv6RawExtHeaderA.windows. forall_win unf_raw. Qed.

(* the unwrap of Ipv6RawExtHeader::new_raw: payload length (b+1)*8-2 lies in
   [6, 2046] because b is a byte, and (len + 2) mod 8 = 0 *)
Lemma raw_to_header_ok h : wf_raw h -> bytes_ok (snd h) -> okr (Ipv6RawExtHeaderA.to_header h).
Proof.
  intros (b & E1 & L) Hok. pose proof (rdU_byte h 1 b Hok E1) as B.
  unf_raw. oksteps.
  unfold Ipv6RawExtHeaderA.new_raw, Ipv6RawExtHeaderA.MIN_PAYLOAD_LEN, Ipv6RawExtHeaderA.MAX_PAYLOAD_LEN.
  destruct (s_len w <? 6) eqn:C1; [lia|]. destruct (2046 <? s_len w) eqn:C2; [lia|].
  replace (s_len w + 2) with ((b + 1) * 8) by lia.
  rewrite N.mod_mul by discriminate. rewrite N.eqb_refl. cbn [negb]. eexists; reflexivity.
Qed.

Lemma raw_conversions_ok h : wf_raw h -> bytes_ok (snd h) -> Forall nobug (Ipv6RawExtHeaderA.conversions h).
Proof. intros W Hok. repeat constructor. now apply nobug_run, okr_nobug, raw_to_header_ok. Qed.

Definition wf_frag (h : slice) : Prop := s_len h = 8.

Lemma frag_inv s h :
  Ipv6FragmentHeaderSlice.from_slice s = Ok h -> subU s 0 8 = Ok h /\ 8 <= s_len s.
Proof. unfold Ipv6FragmentHeaderSlice.from_slice. intros H. finv H E. split; [exact H|lia]. Qed.

Lemma frag_wf s h : Ipv6FragmentHeaderSlice.from_slice s = Ok h -> wf_frag h /\ sub_of h s.
Proof. intros H. destruct (frag_inv _ _ H) as (Hsl & _). destruct (prefix_hdr _ _ _ Hsl) as (L & S & _). now split. Qed.

Ltac unf_frag :=
  unfold Ipv6FragmentHeaderA.to_header, Ipv6FragmentHeaderA.is_fragmenting_payload;
  unfold Ipv6FragmentHeaderA.identification, Ipv6FragmentHeaderA.more_fragments,
    Ipv6FragmentHeaderA.fragment_offset, Ipv6FragmentHeaderA.next_header.

Lemma frag_accessors_ok h : wf_frag h -> Forall nobug (Ipv6FragmentHeaderA.accessors h).
Proof. unfold wf_frag. intros L. unfold Ipv6FragmentHeaderA.accessors. forall_ok unf_frag. Qed.

Definition wf_udph (h : slice) : Prop := s_len h = 8.
Definition wf_udp (s : slice) : Prop := 8 <= s_len s.

Lemma udph_wf s h : UdpSlice.header_from_slice s = Ok h -> wf_udph h /\ sub_of h s.
Proof.
  unfold UdpSlice.header_from_slice. intros H. finv H E.
  destruct (prefix_hdr _ _ _ H) as (L & S & _). now split.
Qed.

Lemma udph_len s h : UdpSlice.header_from_slice s = Ok h -> 8 <= s_len s.
Proof. intros H. destruct (udph_wf _ _ H) as (L & S). apply sub_of_len in S. unfold wf_udph in L. lia. Qed.

Lemma udp_wf s u : UdpSlice.from_slice s = Ok u -> wf_udp u /\ sub_of u s.
Proof.
  unfold UdpSlice.from_slice. intros H. binv H h Eh. binv H l El. finv H E1.
  pose proof (udph_len _ _ Eh) as L8.
  destruct (l =? 0) eqn:E0.
  - injection H as <-. split; [exact L8|apply sub_of_refl].
  - finv H E8. destruct (prefix_hdr _ _ _ H) as (L & S & _). split; [|exact S]. unfold wf_udp. lia.
Qed.

Lemma udp_lax_wf s u : UdpSlice.from_slice_lax s = Ok u -> wf_udp u /\ sub_of u s.
Proof.
  unfold UdpSlice.from_slice_lax. intros H. binv H h Eh. binv H l El.
  pose proof (udph_len _ _ Eh) as L8.
  destruct ((s_len s <? l) || (l <? 8)) eqn:E1.
  - injection H as <-. split; [exact L8|apply sub_of_refl].
  - destruct (prefix_hdr _ _ _ H) as (L & S & _). split; [|exact S]. unfold wf_udp. lia.
Qed.

Ltac unf_udp :=
  unfold UdpA.payload_len_source, UdpA.to_header;
  unfold UdpA.payload, UdpA.header_slice, UdpA.checksum, UdpA.length, UdpA.destination_port, UdpA.source_port.

Lemma udph_accessors_ok h : wf_udph h -> Forall nobug (UdpA.header_accessors h).
Proof. unfold wf_udph. intros L. unfold UdpA.header_accessors. forall_ok unf_udp. Qed.

Lemma udp_accessors_ok s : wf_udp s -> Forall nobug (UdpA.accessors s).
Proof.
  unfold wf_udp. intros L. unfold UdpA.accessors, UdpA.header_accessors. cbn [app]. forall_ok unf_udp.
Qed.

Lemma udp_windows_ok s : wf_udp s -> Forall (win_ok s) (UdpA.windows s).
Proof. unfold wf_udp. intros L. unfold UdpA.windows. forall_win unf_udp. Qed.

(* the data-offset nibble: b & 0xf0 = 16 * ((b >> 4) & 15) *)
Lemma land240 b : N.land b 240 = N.land (N.shiftr b 4) 15 * 16.
Proof.
  rewrite (N.div_mod (N.land b 240) (2 ^ 4)) by discriminate.
  rewrite <- N.shiftr_div_pow2, <- N.land_ones, N.shiftr_land, <- N.land_assoc.
  change (N.land 240 (N.ones 4)) with 0. rewrite N.land_0_r. change (N.shiftr 240 4) with 15.
  change (2 ^ 4) with 16. lia.
Qed.

Lemma tcp_do_hl b : N.shiftr (N.land b 240) 4 * 4 = N.shiftr (N.land b 240) 2.
Proof.
  rewrite land240. set (x := N.land (N.shiftr b 4) 15). rewrite !N.shiftr_div_pow2.
  change (2 ^ 4) with 16. change (2 ^ 2) with 4. rewrite N.div_mul by discriminate.
  replace (x * 16) with (x * 4 * 4) by lia. now rewrite N.div_mul.
Qed.

Lemma tcp_hl_le b : N.shiftr (N.land b 240) 2 <= 60.
Proof.
  rewrite <- tcp_do_hl, land240, N.shiftr_div_pow2, N.div_mul by discriminate.
  pose proof (land15_le (N.shiftr b 4)). lia.
Qed.

Definition wf_tcp (x : N * slice) : Prop := 20 <= fst x /\ fst x <= s_len (snd x) /\ fst x <= 60.

Lemma tcp_wf s x : TcpSlice.from_slice s = Ok x -> wf_tcp x /\ snd x = s.
Proof.
  unfold TcpSlice.from_slice. intros H. finv H E. binv H b E12. cbv zeta in H. finv H E1. finv H E2.
  injection H as <-. split; [|reflexivity].
  pose proof (tcp_hl_le b). unfold wf_tcp. cbn [fst snd]. lia.
Qed.

Ltac unf_tcpf :=
  unfold TcpFieldsA.fields;
  unfold TcpFieldsA.urgent_pointer, TcpFieldsA.checksum, TcpFieldsA.window_size, TcpFieldsA.cwr,
    TcpFieldsA.ece, TcpFieldsA.urg, TcpFieldsA.ack, TcpFieldsA.psh, TcpFieldsA.rst, TcpFieldsA.syn,
    TcpFieldsA.fin, TcpFieldsA.ns, TcpFieldsA.data_offset, TcpFieldsA.acknowledgment_number,
    TcpFieldsA.sequence_number, TcpFieldsA.destination_port, TcpFieldsA.source_port.

Lemma tcp_fields_ok s : 20 <= s_len s -> Forall nobug (TcpFieldsA.field_accessors s).
Proof. intros L. unfold TcpFieldsA.field_accessors. forall_ok unf_tcpf. Qed.

Lemma tcp_fields_okr s : 20 <= s_len s -> okr (TcpFieldsA.fields s).
Proof. intros L. unf_tcpf. oksolve. Qed.

Ltac unf_tcp :=
  unfold TcpSliceA.debug, TcpSliceA.to_header, TcpSliceA.checksum_windows;
  unfold TcpSliceA.options, TcpSliceA.payload, TcpSliceA.header_slice, idx_from,
    TcpFieldsA.to_header_options.

Lemma tcp_accessors_ok x : wf_tcp x -> Forall nobug (TcpSliceA.accessors x).
Proof.
  intros (L1 & L2 & L3). unfold TcpSliceA.accessors. apply Forall_app.
  split; [apply tcp_fields_ok; lia|].
  destruct (tcp_fields_okr (snd x)) as (f & Ef); [lia|].
  forall_ok unf_tcp.
Qed.

Lemma tcp_windows_ok x : wf_tcp x -> Forall (win_ok (snd x)) (TcpSliceA.windows x).
Proof. intros (L1 & L2 & L3). unfold TcpSliceA.windows. forall_win unf_tcp. Qed.

Definition wf_tcph (h : slice) : Prop :=
  20 <= s_len h /\ s_len h <= 60 /\
  exists b, rdU h 12 = Ok b /\ s_len h = N.shiftr (N.land b 240) 2.

Lemma tcph_wf s h : TcpHeaderSliceA.from_slice s = Ok h -> wf_tcph h /\ sub_of h s.
Proof.
  unfold TcpHeaderSliceA.from_slice. intros H. finv H E. binv H b E12. cbv zeta in H. finv H E1. finv H E2.
  destruct (prefix_hdr _ _ _ H) as (L & S & R & _). split; [|exact S].
  pose proof (tcp_hl_le b). unfold wf_tcph. repeat split; try lia.
  exists b. rewrite R by lia. auto.
Qed.

Ltac unf_tcph :=
  unfold TcpHeaderSliceA.to_header, TcpHeaderSliceA.checksum_windows;
  unfold TcpHeaderSliceA.options, TcpFieldsA.data_offset, TcpFieldsA.to_header_options.

Lemma tcph_accessors_ok h : wf_tcph h -> Forall nobug (TcpHeaderSliceA.accessors h).
Proof.
  intros (L1 & L2 & b & E12 & Lb). unfold TcpHeaderSliceA.accessors. apply Forall_app.
  split; [apply tcp_fields_ok; lia|].
  destruct (tcp_fields_okr h) as (f & Ef); [lia|].
  pose proof (tcp_do_hl b) as D. set (d := N.shiftr (N.land b 240) 4) in *.
  forall_ok unf_tcph.
Qed.

Lemma tcph_windows_ok h : wf_tcph h -> Forall (win_ok h) (TcpHeaderSliceA.windows h).
Proof.
  intros (L1 & L2 & b & E12 & Lb). unfold TcpHeaderSliceA.windows.
  pose proof (tcp_do_hl b) as D. set (d := N.shiftr (N.land b 240) 4) in *.
  forall_win unf_tcph.
Qed.

Definition wf_icmp4 (s : slice) : Prop :=
  8 <= s_len s /\
  exists t c, rdU s 0 = Ok t /\ rdU s 1 = Ok c /\ (Icmpv4A.is_ts t c = true -> s_len s = 20).

Lemma icmp4_wf s v : Icmpv4Slice.from_slice s = Ok v -> v = s /\ wf_icmp4 v.
Proof.
  unfold Icmpv4Slice.from_slice. intros H. finv H E. binv H t E0. binv H c E1. finv H C13. finv H C14.
  injection H as <-. split; [reflexivity|]. split; [lia|].
  exists t, c. repeat split; auto. unfold Icmpv4A.is_ts. intros T. lia.
Qed.

Ltac unf_icmp4 :=
  unfold Icmpv4A.header, Icmpv4A.icmp_type, Icmpv4A.unknown, Icmpv4A.timestamp_message, Icmpv4A.payload,
    Icmpv4A.header_len;
  unfold Icmpv4A.bytes5to8, Icmpv4A.checksum, Icmpv4A.code_u8, Icmpv4A.type_u8.

(* icmp_type is a tree of tests on the type and code bytes; every leaf reads at most
   bytes 4..7, except the two timestamp leaves, where from_slice checked the length 20 *)
Lemma icmp4_type_ok s : wf_icmp4 s -> okr (Icmpv4A.icmp_type s).
Proof.
  intros (L & t & c & E0 & E1 & T). unfold Icmpv4A.is_ts in T.
  assert (B : okr (Icmpv4A.bytes5to8 s)) by (unfold Icmpv4A.bytes5to8; oksolve).
  assert (U : okr (Icmpv4A.unknown s)).
  { unfold Icmpv4A.unknown, Icmpv4A.type_u8, Icmpv4A.code_u8. rewrite E0, E1. now apply okr_map. }
  unfold Icmpv4A.icmp_type, Icmpv4A.type_u8, Icmpv4A.code_u8. rewrite E0, E1. cbn [bind].
  repeat (apply okr_if; intros ?);
    try exact U; try apply okr_Ok;
    try (apply okr_map; first [exact B|apply rd16_ok; lia|apply rdU_ok; lia]).
  all: assert (L20 : s_len s = 20) by (apply T; lia); unfold Icmpv4A.timestamp_message; oksolve.
Qed.

Lemma icmp4_windows_ok s : wf_icmp4 s -> Forall (win_ok s) (Icmpv4A.windows s).
Proof.
  intros (L & t & c & E0 & E1 & T). unfold Icmpv4A.windows. repeat constructor.
  unfold win_ok. unf_icmp4. rewrite E0, E1. cbn [bind].
  destruct (Icmpv4A.is_ts t c) eqn:C; [specialize (T eq_refl)|]; winsolve.
Qed.

Lemma icmp4_accessors_ok s : wf_icmp4 s -> Forall nobug (Icmpv4A.accessors s).
Proof.
  intros W. pose proof (icmp4_type_ok s W) as Ty. pose proof (Forall_inv (icmp4_windows_ok s W)) as P.
  destruct W as (L & t & c & E0 & E1 & T).
  assert (H : okr (Icmpv4A.header s)).
  { unfold Icmpv4A.header. destruct Ty as (ty & ->). cbn [bind]. unf_icmp4. oksolve. }
  unfold Icmpv4A.accessors. forall_ok unf_icmp4.
Qed.

Definition wf_icmp6 (s : slice) : Prop := 8 <= s_len s.

Lemma icmp6_wf s v : Icmpv6Slice.from_slice s = Ok v -> v = s /\ wf_icmp6 v.
Proof.
  unfold Icmpv6Slice.from_slice. intros H. finv H E. finv H E2.
  injection H as <-. split; [reflexivity|]. unfold wf_icmp6. lia.
Qed.

Ltac unf_icmp6 :=
  unfold Icmpv6A.header, Icmpv6A.icmp_type;
  unfold Icmpv6A.payload, Icmpv6A.bytes5to8, Icmpv6A.checksum, Icmpv6A.code_u8, Icmpv6A.type_u8.

Lemma icmp6_accessors_ok s : wf_icmp6 s -> Forall nobug (Icmpv6A.accessors s).
Proof. unfold wf_icmp6. intros L. unfold Icmpv6A.accessors. forall_ok unf_icmp6. Qed.

Lemma icmp6_windows_ok s : wf_icmp6 s -> Forall (win_ok s) (Icmpv6A.windows s).
Proof. unfold wf_icmp6. intros L. unfold Icmpv6A.windows. forall_win unf_icmp6. Qed.

(* IPv6 extension chain: the iterator re-walks what from_slice validated *)

(* I is the first u bytes of W (same pointer) *)
Definition pre (u : N) (I W : slice) : Prop :=
  fst I = fst W /\ snd I = take u (snd W) /\ u <= s_len W.

Lemma pre_len u I W : pre u I W -> s_len I = u.
Proof. intros (_ & E & L). unfold s_len in *. rewrite E, len_take. lia. Qed.

Lemma pre_rd u I W i : pre u I W -> i < u -> rdU I i = rdU W i.
Proof.
  intros (_ & E & L) Hi. unfold rdU, rd. rewrite E. unfold take.
  rewrite nth_error_firstn_lt by lia. reflexivity.
Qed.

Lemma pre_subU u I W k n : pre u I W -> k + n <= u -> subU I k n = subU W k n.
Proof.
  intros P H. pose proof (pre_len _ _ _ P) as LI. destruct P as (E1 & E2 & L). unfold subU.
  rewrite LI. destruct (k + n <=? u) eqn:A; [|lia]. destruct (k + n <=? s_len W) eqn:B; [|lia].
  rewrite E1, E2. f_equal. f_equal. unfold take, drop. apply firstn_skipn_firstn. lia.
Qed.

Lemma pre_rest u I W l I' W' :
  pre u I W -> l <= u -> subU I l (u - l) = Ok I' -> subU W l (s_len W - l) = Ok W' ->
  pre (u - l) I' W'.
Proof.
  intros P Hl HI HW. pose proof (pre_len _ _ _ P) as LI. destruct P as (E1 & E2 & L).
  apply subU_inv in HI. destruct HI as (_ & _ & _ & ->).
  pose proof (subU_inv _ _ _ _ HW) as (_ & LW' & _ & ->). unfold pre. cbn [fst snd].
  split; [now rewrite E1|]. split.
  - rewrite E2. unfold take, drop. rewrite firstn_skipn_firstn by lia.
    rewrite firstn_firstn. f_equal. lia.
  - rewrite LW'. lia.
Qed.

Definition item_wf (x : ext_item) : Prop :=
  match x with
  | XHopByHop s | XRouting s | XDestinationOptions s => wf_raw s
  | XFragment s => wf_frag s
  | XAuthentication s => wf_ah s
  end.

(* consecutive windows from pos to endp *)
Fixpoint tiles (pos : N) (ws : list window) (endp : N) : Prop :=
  match ws with
  | [] => pos = endp
  | (o, l) :: r => o = pos /\ tiles (pos + l) r endp
  end.

Definition item_win (x : ext_item) : window := win_of (ext_item_slice x).

Import Ipv6ExtIterA.

(* one arm of Iterator::next, given that the unchecked constructor returns the
   header sl = W[0..l] that from_slice validated *)
Lemma arm_ok I W u l sl W' mk nhf wrap nx nh0 :
  pre u I W -> l <= u -> subU W 0 l = Ok sl -> mk I = Ok sl -> nhf sl = Ok nx ->
  subU W l (s_len W - l) = Ok W' ->
  exists I', arm (mkExtIter nh0 I) mk nhf wrap = Ok (Some (wrap sl, mkExtIter nx I')) /\
             pre (u - l) I' W' /\ sub_of I' I.
Proof.
  intros P Hl Hsl Hmk Hnh HW'. pose proof (pre_len _ _ _ P) as LI.
  pose proof (subU_inv _ _ _ _ Hsl) as (_ & Lsl & _).
  unfold arm. cbn [xi_rest]. rewrite Hmk. cbn [bind]. rewrite Lsl, LI.
  rewrite subN_ok by lia. cbn [bind].
  destruct (subU_ok I l (u - l)) as (I' & E & _ & _); [lia|]. rewrite E. cbn [bind].
  rewrite Hnh. cbn [bind]. exists I'. split; [reflexivity|]. split.
  - eapply pre_rest; eauto.
  - now exists l, (u - l).
Qed.

Definition chain_good (pos0 : N) (I : slice) (u : N) (items : list ext_item) : Prop :=
  8 * len items <= u /\
  tiles pos0 (map item_win items) (pos0 + u) /\
  Forall item_wf items /\
  Forall (fun x => sub_of (ext_item_slice x) I) items.

Lemma chain_good_cons I I' W sl l u x r :
  pre u I W -> subU W 0 l = Ok sl -> ext_item_slice x = sl -> item_wf x -> 8 <= l -> l <= u ->
  sub_of I' I -> chain_good (s_off W + l) I' (u - l) r ->
  chain_good (s_off W) I u (x :: r).
Proof.
  intros P Hsl Ex Wx L8 Lu SI (G1 & G2 & G3 & G4).
  pose proof (subU_inv _ _ _ _ Hsl) as (_ & Lsl & Osl & _).
  unfold chain_good. rewrite len_cons. split; [lia|]. split.
  - cbn [map tiles]. unfold item_win at 1. rewrite Ex. unfold win_of. rewrite Lsl, Osl.
    split; [lia|]. replace (s_off W + u) with (s_off W + l + (u - l)) by lia. exact G2.
  - split; [constructor; auto|]. constructor.
    + rewrite Ex. exists 0, l. rewrite (pre_subU u I W 0 l P) by lia. exact Hsl.
    + eapply Forall_impl; [|exact G4]. intros y Hy. exact (sub_of_trans _ _ _ Hy SI).
Qed.

Lemma chain_good_nil pos I : chain_good pos I 0 [].
Proof. unfold chain_good. cbn. repeat split; auto; lia. Qed.

Lemma next_empty nh I : s_len I = 0 -> next (mkExtIter nh I) = Ok None.
Proof. intros H. unfold next. cbn [xi_rest]. now rewrite H. Qed.

(* the arm of Iterator::next taken for header number nh: unchecked constructor and
   item constructor (all arms read the next header number at byte 0) *)
Definition raw_item (nh : N) : slice -> ext_item :=
  if nh =? IPN_HOP_BY_HOP then XHopByHop else if nh =? IPN_ROUTE then XRouting else XDestinationOptions.

Definition arm_of (nh : N) : option ((slice -> res slice) * (slice -> ext_item)) :=
  if (nh =? IPN_HOP_BY_HOP) || (nh =? IPN_ROUTE) || (nh =? IPN_DEST_OPTIONS)
  then Some (Ipv6RawExtHeaderA.from_slice_unchecked, raw_item nh)
  else if nh =? IPN_FRAG then Some (Ipv6FragmentHeaderA.from_slice_unchecked, XFragment)
  else if nh =? IPN_AUTH then Some (auth_from_slice_unchecked, XAuthentication)
  else None.

Lemma next_arm nh I :
  next (mkExtIter nh I) =
  if s_len I =? 0 then Ok None
  else match arm_of nh with
       | Some (mk, wrap) => arm (mkExtIter nh I) mk (fun s => rdU s 0) wrap
       | None => Ok None
       end.
Proof.
  unfold next, arm_of, raw_item. cbn [xi_rest xi_next_header].
  destruct (nh =? IPN_HOP_BY_HOP), (nh =? IPN_ROUTE), (nh =? IPN_DEST_OPTIONS), (nh =? IPN_FRAG),
    (nh =? IPN_AUTH); reflexivity.
Qed.

Lemma raw_item_spec nh sl : item_wf (raw_item nh sl) = wf_raw sl /\ ext_item_slice (raw_item nh sl) = sl.
Proof. unfold raw_item. destruct (nh =? IPN_HOP_BY_HOP), (nh =? IPN_ROUTE); split; reflexivity. Qed.

(* W starts with the complete extension header sl, numbered nh and naming nx as the
   next one; every prefix I of W that contains sl is accepted by the unchecked
   constructor of the arm for nh, which returns sl again *)
Definition hdr_at (W : slice) (nh : N) (sl : slice) (nx : N) (x : ext_item) : Prop :=
  exists l mk wrap,
    arm_of nh = Some (mk, wrap) /\ x = wrap sl /\ item_wf x /\ ext_item_slice x = sl /\
    subU W 0 l = Ok sl /\ 8 <= l /\ rdU sl 0 = Ok nx /\
    forall I u, pre u I W -> l <= u -> mk I = Ok sl.

Lemma raw_hdr_at W nh sl nx :
  (nh =? IPN_HOP_BY_HOP) || (nh =? IPN_ROUTE) || (nh =? IPN_DEST_OPTIONS) = true ->
  Ipv6RawExtHeaderSlice.from_slice W = Ok sl -> rdU sl 0 = Ok nx ->
  hdr_at W nh sl nx (raw_item nh sl).
Proof.
  intros Hnh Esl Hnx. destruct (raw_inv _ _ Esl) as (b & E1 & Hsl & Ll).
  destruct (raw_item_spec nh sl) as (Ew & Es).
  exists ((b + 1) * 8), Ipv6RawExtHeaderA.from_slice_unchecked, (raw_item nh).
  unfold arm_of. rewrite Hnh, Ew. repeat split; auto; [exact (proj1 (raw_wf _ _ Esl))|lia|].
  intros I u P Lu. unfold Ipv6RawExtHeaderA.from_slice_unchecked.
  rewrite (pre_rd u I W 1 P) by lia. rewrite E1. cbn [bind].
  now rewrite (pre_subU u I W 0 _ P) by lia.
Qed.

Lemma frag_hdr_at W sl nx :
  Ipv6FragmentHeaderSlice.from_slice W = Ok sl -> rdU sl 0 = Ok nx ->
  hdr_at W IPN_FRAG sl nx (XFragment sl).
Proof.
  intros Esl Hnx. destruct (frag_inv _ _ Esl) as (Hsl & Ll).
  exists 8, Ipv6FragmentHeaderA.from_slice_unchecked, XFragment.
  repeat split; auto; [exact (proj1 (frag_wf _ _ Esl))|lia|].
  intros I u P Lu. unfold Ipv6FragmentHeaderA.from_slice_unchecked.
  now rewrite (pre_subU u I W 0 8 P) by lia.
Qed.

Lemma ah_hdr_at W sl nx :
  IpAuthHeaderSlice.from_slice W = Ok sl -> rdU sl 0 = Ok nx ->
  hdr_at W IPN_AUTH sl nx (XAuthentication sl).
Proof.
  intros Esl Hnx. destruct (ah_inv _ _ Esl) as (p & E1 & P1 & Hsl & Ll).
  exists ((p + 2) * 4), auth_from_slice_unchecked, XAuthentication.
  repeat split; auto; [exact (proj1 (ah_wf _ _ Esl))|lia|].
  intros I u P Lu. unfold auth_from_slice_unchecked.
  rewrite (pre_rd u I W 1 P) by lia. rewrite E1. cbn [bind].
  now rewrite (pre_subU u I W 0 _ P) by lia.
Qed.

(* W starts with a chain of complete extension headers, the first numbered nh, that
   ends where Wf starts *)
Inductive hdr_chain : slice -> N -> slice -> list ext_item -> Prop :=
| hc_nil W nh : hdr_chain W nh W []
| hc_cons W nh sl nx x W' Wf r :
    hdr_at W nh sl nx x -> subU W (s_len sl) (s_len W - s_len sl) = Ok W' ->
    hdr_chain W' nx Wf r -> hdr_chain W nh Wf (x :: r).

(* the iterator started on the prefix of W in front of Wf re-walks exactly the chain,
   and then stops because its rest is empty (the next_header of the last header may
   well name another extension header) *)
Lemma hdr_chain_collect W nh Wf items :
  hdr_chain W nh Wf items ->
  s_len Wf <= s_len W /\ sub_of Wf W /\
  forall I fuel, pre (s_len W - s_len Wf) I W -> (N.to_nat (s_len W - s_len Wf) < fuel)%nat ->
    collect fuel (mkExtIter nh I) = Ok items /\ chain_good (s_off W) I (s_len W - s_len Wf) items.
Proof.
  induction 1 as [W nh|W nh sl nx x W' Wf r Hat EW' C (A1 & A2 & A3)].
  - split; [lia|]. split; [apply sub_of_refl|].
    intros I fuel P Hf. rewrite N.sub_diag in *. destruct fuel as [|f]; [lia|].
    cbn [collect]. rewrite next_empty by (now apply pre_len in P).
    split; [reflexivity|apply chain_good_nil].
  - destruct Hat as (l & mk & wrap & Harm & -> & Wx & Ex & Hsl & L8 & Hnx & Hmk).
    pose proof (subU_inv _ _ _ _ Hsl) as (Ll & Lsl & _). rewrite Lsl in EW'.
    pose proof (subU_inv _ _ _ _ EW') as (_ & LW' & OW' & _).
    split; [lia|]. split; [eapply sub_of_trans; [exact A2|now exists l, (s_len W - l)]|].
    intros I fuel P Hf. set (u := s_len W - s_len Wf) in *.
    assert (Lu : l <= u) by (subst u; lia).
    destruct fuel as [|f]; [lia|]. cbn [collect].
    rewrite next_arm, Harm, (pre_len _ _ _ P). destruct (u =? 0) eqn:Eu; [lia|].
    destruct (arm_ok I W u l sl W' mk (fun s => rdU s 0) wrap nx nh P Lu Hsl (Hmk I u P Lu) Hnx EW')
      as (I' & -> & P' & SI). cbn [bind].
    replace (u - l) with (s_len W' - s_len Wf) in P' by (subst u; lia).
    destruct (A3 I' f P') as (-> & G); [subst u; lia|]. cbn [bind].
    split; [reflexivity|].
    eapply (chain_good_cons I I' W sl l u); eauto.
    rewrite <- OW'. replace (u - l) with (s_len W' - s_len Wf) by (subst u; lia). exact G.
Qed.

(* the common tail of the continuing arms of the strict and the lax walk: cut the
   header off, read the next header number, go on *)
Lemma chain_step {A} W nh sl x Wf (k : slice -> N -> res A) y :
  (forall nx, rdU sl 0 = Ok nx -> hdr_at W nh sl nx x) ->
  (forall W' nx, k W' nx = Ok y -> exists r, hdr_chain W' nx Wf r) ->
  (let* n := subN (s_len W) (s_len sl) in
   let* rest' := subU W (s_len sl) n in
   let* nx := rdU sl 0 in k rest' nx) = Ok y ->
  exists r, hdr_chain W nh Wf r.
Proof.
  intros Hat IH H. binv H n En. apply subN_inv in En. destruct En as (_ & ->).
  binv H W' EW'. binv H nx Enx. destruct (IH W' nx H) as (r & C).
  exists (x :: r). eapply hc_cons; eauto.
Qed.

Lemma walk_chain fuel start_len : forall W nh fr Wf nhf frf,
  Ipv6ExtensionsSlice.walk fuel start_len W nh fr = Ok (Wf, nhf, frf) ->
  exists items, hdr_chain W nh Wf items.
Proof.
  induction fuel as [|f IH]; intros W nh fr Wf nhf frf H; [discriminate|].
  cbn [Ipv6ExtensionsSlice.walk] in H.
  destruct (nh =? IPN_HOP_BY_HOP) eqn:E0; [discriminate|].
  destruct ((nh =? IPN_DEST_OPTIONS) || (nh =? IPN_ROUTE)) eqn:Eraw.
  { binv H off Eoff. binv H sl Esl. apply map_len_err_inv in Esl.
    eapply chain_step; [| |exact H].
    - intros nx. apply raw_hdr_at; [lia|exact Esl].
    - intros W' nx. apply IH. }
  destruct (nh =? IPN_FRAG) eqn:Efrag.
  { apply N.eqb_eq in Efrag. subst nh.
    binv H off Eoff. binv H sl Esl. apply map_len_err_inv in Esl.
    eapply chain_step; [| |exact H].
    - intros nx. now apply frag_hdr_at.
    - intros W' nx HK. binv HK fr2 Efr. exact (IH _ _ _ _ _ _ HK). }
  destruct (nh =? IPN_AUTH) eqn:Eauth.
  { apply N.eqb_eq in Eauth. subst nh.
    binv H off Eoff. binv H sl Esl. apply remap_inv in Esl; [|intros [l|c]; discriminate].
    eapply chain_step; [| |exact H].
    - intros nx. now apply ah_hdr_at.
    - intros W' nx. apply IH. }
  injection H as <- _ _. exists []. constructor.
Qed.

Lemma walk_collect fuel start_len :
  forall W nh fr Wf nhf frf,
    Ipv6ExtensionsSlice.walk fuel start_len W nh fr = Ok (Wf, nhf, frf) ->
    s_len Wf <= s_len W /\ sub_of Wf W /\
    forall I fuel2, pre (s_len W - s_len Wf) I W -> (N.to_nat (s_len W - s_len Wf) < fuel2)%nat ->
      exists items, collect fuel2 (mkExtIter nh I) = Ok items /\
                    chain_good (s_off W) I (s_len W - s_len Wf) items.
Proof.
  intros W nh fr Wf nhf frf H. destruct (walk_chain _ _ _ _ _ _ _ _ H) as (items & C).
  destruct (hdr_chain_collect _ _ _ _ C) as (A1 & A2 & A3).
  split; [exact A1|]. split; [exact A2|]. intros I fuel2 P Hf. exists items. now apply A3.
Qed.

Definition exts_good (x : ipv6_exts_slice) : Prop :=
  exists l, items x = Ok l /\
            chain_good (s_off (x6_slice x)) (x6_slice x) (s_len (x6_slice x)) l.

Lemma pre_take s u : u <= s_len s -> pre u (fst s, take u (snd s)) s.
Proof. intros H. unfold pre. cbn [fst snd]. auto. Qed.

Lemma s_len_length (s : slice) : length (snd s) = N.to_nat (s_len s).
Proof. unfold s_len, len. lia. Qed.

Lemma exts_good_nil o fr s : s_len s = 0 -> exts_good (mkIpv6Exts o fr s).
Proof.
  intros L. unfold exts_good, items, into_iter. cbn [x6_slice x6_first collect].
  rewrite next_empty by exact L. cbn [bind]. exists []. split; [reflexivity|].
  rewrite L. apply chain_good_nil.
Qed.

(* what Ipv6ExtensionsSlice::from_slice and from_slice_lax store for a chain that
   starts the slice s *)
Lemma exts_good_of_chain s nh restf frf xs :
  hdr_chain s nh restf xs ->
  exts_good (mkIpv6Exts (if negb (s_len restf =? s_len s) then Some nh else None) frf
               (fst s, take (s_len s - s_len restf) (snd s))) /\
  sub_of (fst s, take (s_len s - s_len restf) (snd s)) s /\ sub_of restf s.
Proof.
  intros C. destruct (hdr_chain_collect _ _ _ _ C) as (A1 & A2 & A3).
  set (used := s_len s - s_len restf) in *. set (I := (fst s, take used (snd s))).
  assert (PI : pre used I s) by (apply pre_take; lia).
  pose proof (pre_len _ _ _ PI) as LI.
  split; [|split; [exists 0, used; apply take_as_sub; lia|exact A2]].
  destruct (s_len restf =? s_len s) eqn:Eall; cbn [negb].
  - apply exts_good_nil. lia.
  - destruct (A3 I (S (N.to_nat used)) PI) as (E & G); [lia|].
    exists xs. unfold items, into_iter. cbn [x6_slice x6_first].
    rewrite s_len_length, LI. split; [exact E|exact G].
Qed.

Lemma exts_good_from_slice nh s x nx rest :
  Ipv6ExtensionsSlice.from_slice nh s = Ok (x, nx, rest) ->
  exts_good x /\ sub_of (x6_slice x) s /\ sub_of rest s.
Proof.
  unfold Ipv6ExtensionsSlice.from_slice. intros H.
  binv H st Est. destruct st as (rest0, nh0).
  binv H w Ew. destruct w as ((restf, nxf), frf).
  binv H used Eu. apply subN_inv in Eu. destruct Eu as (Lr & ->).
  binv H sl Esl.
  destruct (s_len s - s_len restf <=? s_len s) eqn:Eus; [|discriminate]. injection Esl as <-.
  injection H as <- <- <-. cbn [x6_slice].
  apply walk_chain in Ew. destruct Ew as (items & C).
  destruct (IPN_HOP_BY_HOP =? nh) eqn:Ehbh.
  - (* hop-by-hop header first: one more link in front *)
    apply N.eqb_eq in Ehbh. subst nh.
    binv Est sl0 Esl0. binv Est r0 Er0. binv Est n0 En0. injection Est as <- <-.
    destruct (s_len sl0 <=? s_len s) eqn:El0; [|discriminate]. injection Er0 as <-.
    eapply exts_good_of_chain, hc_cons;
      [exact (raw_hdr_at s IPN_HOP_BY_HOP sl0 n0 eq_refl Esl0 En0)|apply drop_as_sub; lia|exact C].
  - injection Est as <- <-. eapply exts_good_of_chain, C.
Qed.

(* the C02 facts about the iteration, stated on the list of yielded items *)
Lemma chain_good_bounded pos I u l : chain_good pos I u l -> 8 * len l <= u.
Proof. now intros (H & _). Qed.

Definition wf_ipv4 (v : ipv4_slice) : Prop :=
  wf_ipv4h (v4_header v) /\ match v4_auth v with Some a => wf_ah a | None => True end.
Definition ipv4_in (v : ipv4_slice) (s : slice) : Prop :=
  sub_of (v4_header v) s /\ match v4_auth v with Some a => sub_of a s | None => True end /\
  sub_of (ipp_slice (v4_payload v)) s.

Lemma ipv4_finish_wf header hp v :
  Ipv4Slice.finish header hp = Ok v ->
  v4_header v = header /\
  match v4_auth v with Some a => wf_ah a /\ sub_of a hp | None => True end /\
  sub_of (ipp_slice (v4_payload v)) hp.
Proof.
  unfold Ipv4Slice.finish. intros H. binv H fr Efr. binv H proto Ep.
  destruct (proto =? IPN_AUTH).
  - binv H auth Ea. apply remap_inv in Ea; [|intros [l|c]; discriminate].
    binv H n En. binv H payload Epl. binv H ipn Eipn. injection H as <-. cbn.
    apply ah_wf in Ea. destruct Ea as (Wa & Sa). repeat split; auto.
    now exists (s_len auth), n.
  - injection H as <-. cbn. repeat split; auto. apply sub_of_refl.
Qed.

Lemma ipv4_pack v header hp s :
  wf_ipv4h header -> sub_of header s -> sub_of hp s -> v4_header v = header ->
  match v4_auth v with Some a => wf_ah a /\ sub_of a hp | None => True end ->
  sub_of (ipp_slice (v4_payload v)) hp -> wf_ipv4 v /\ ipv4_in v s.
Proof.
  intros Wh Sh Shp E1 E2 E3. unfold wf_ipv4, ipv4_in. rewrite E1.
  pose proof (sub_of_trans _ _ _ E3 Shp) as S3.
  destruct (v4_auth v) as [a|].
  - destruct E2 as (Wa & Sa). pose proof (sub_of_trans _ _ _ Sa Shp) as S2. tauto.
  - tauto.
Qed.

Lemma ipv4_wf s v : Ipv4Slice.from_slice s = Ok v -> wf_ipv4 v /\ ipv4_in v s.
Proof.
  unfold Ipv4Slice.from_slice. intros H. binv H header Eh. binv H total Et. finv H Et1. finv H Et2.
  binv H n En. binv H hp Ehp.
  apply ipv4h_wf in Eh. destruct Eh as (Wh & Sh).
  assert (Shp : sub_of hp s) by (now exists (s_len header), n).
  apply ipv4_finish_wf in H. destruct H as (E1 & E2 & E3).
  eapply ipv4_pack; eauto.
Qed.

Definition wf_ipv6 (v : ipv6_slice) : Prop := wf_ipv6h (v6_header v) /\ exts_good (v6_exts v).
Definition ipv6_in (v : ipv6_slice) (s : slice) : Prop :=
  sub_of (v6_header v) s /\ sub_of (x6_slice (v6_exts v)) s /\ sub_of (ipp_slice (v6_payload v)) s.

Lemma ipv6_finish_wf s header v :
  Ipv6Slice.finish s header = Ok v ->
  v6_header v = header /\ exts_good (v6_exts v) /\
  sub_of (x6_slice (v6_exts v)) s /\ sub_of (ipp_slice (v6_payload v)) s.
Proof.
  unfold Ipv6Slice.finish. intros H. binv H pl Epl. binv H hp Ehp. destruct hp as (hp, src).
  assert (Shp : sub_of hp s).
  { destruct ((0 =? pl) && (40 <? s_len s)).
    - binv Ehp n En. binv Ehp p Ep. injection Ehp as <- <-. now exists 40, n.
    - destruct (s_len s <? 40 + pl); unfold lerr in Ehp; [discriminate|].
      binv Ehp p Ep. injection Ehp as <- <-. now exists 40, pl. }
  binv H nh Enh. binv H x Ex. destruct x as ((exts, pn), payload). injection H as <-. cbn.
  apply remap_inv in Ex; [|intros [l|c]; discriminate].
  apply exts_good_from_slice in Ex. destruct Ex as (G & S1 & S2).
  pose proof (sub_of_trans _ _ _ S1 Shp). pose proof (sub_of_trans _ _ _ S2 Shp). tauto.
Qed.

Lemma ipv6_wf s v : Ipv6Slice.from_slice s = Ok v -> wf_ipv6 v /\ ipv6_in v s.
Proof.
  unfold Ipv6Slice.from_slice. intros H. binv H header Eh.
  apply ipv6h_wf in Eh. destruct Eh as (Wh & Sh).
  apply ipv6_finish_wf in H. destruct H as (E1 & E2 & E3 & E4).
  unfold wf_ipv6, ipv6_in. rewrite E1. auto.
Qed.

Lemma ip_wf s i :
  IpSlice.from_slice s = Ok i ->
  match i with
  | IpV4 v => wf_ipv4 v /\ ipv4_in v s
  | IpV6 v => wf_ipv6 v /\ ipv6_in v s
  end.
Proof.
  unfold IpSlice.from_slice. intros H. finv H E0. binv H fb Efb. cbv zeta in H.
  destruct (N.shiftr fb 4 =? 4).
  - finv H Ei. finv H El. binv H header Eh. binv H total Et. finv H Et1. finv H Et2.
    binv H n En. binv H hp Ehp. binv H v Ev. injection H as <-.
    destruct (prefix_hdr _ _ _ Eh) as (Lh & Sh & _). pose proof (land15_le fb).
    assert (Wh : wf_ipv4h header) by (unfold wf_ipv4h; lia).
    assert (Shp : sub_of hp s) by (now exists (N.land fb 15 * 4), n).
    apply ipv4_finish_wf in Ev. destruct Ev as (E1 & E2 & E3).
    eapply ipv4_pack; eauto.
  - destruct (N.shiftr fb 4 =? 6); [|discriminate]. finv H El.
    binv H header Eh. binv H v Ev. injection H as <-.
    destruct (prefix_hdr _ _ _ Eh) as (Lh & Sh & _).
    apply ipv6_finish_wf in Ev. destruct Ev as (E1 & E2 & E3 & E4).
    unfold wf_ipv6, ipv6_in, wf_ipv6h. rewrite E1. tauto.
Qed.

Lemma ipv4_accessors_ok v :
  wf_ipv4 v -> match v4_auth v with Some a => bytes_ok (snd a) | None => True end ->
  Forall nobug (Ipv4SliceA.accessors v).
Proof.
  intros (Wh & Wa) Hok. unfold Ipv4SliceA.accessors.
  pose proof (ipv4h_accessors_ok _ Wh) as F.
  apply Forall_app. split; [exact F|]. apply Forall_app. split.
  - destruct (v4_auth v) as [a|]; [|constructor].
    apply Forall_app. split; [now apply ah_accessors_ok|now apply ah_conversions_ok].
  - repeat constructor. unfold Ipv4SliceA.is_payload_fragmented.
    unfold Ipv4HeaderA.accessors in F. rewrite Forall_forall in F. apply F. cbn. tauto.
Qed.

Lemma ipv4_windows_ok v :
  wf_ipv4 v -> Forall (fun r => exists w, r = Ok w /\
                         (sub_of w (v4_header v) \/ match v4_auth v with Some a => sub_of w a | None => False end))
                      (Ipv4SliceA.windows v).
Proof.
  intros (Wh & Wa). unfold Ipv4SliceA.windows. apply Forall_app. split.
  - eapply Forall_impl; [|apply (ipv4h_windows_ok _ Wh)]. intros r (w & E & S). eauto.
  - destruct (v4_auth v) as [a|]; [|constructor].
    eapply Forall_impl; [|apply (ah_windows_ok _ Wa)]. intros r (w & E & S). eauto.
Qed.

Lemma ipv4_windows_in v s : wf_ipv4 v -> ipv4_in v s -> Forall (win_ok s) (Ipv4SliceA.windows v).
Proof.
  intros W (Sh & Sa & _). eapply Forall_impl; [|exact (ipv4_windows_ok v W)].
  intros r (w & E & [Sw|Sw]); exists w; (split; [exact E|]).
  - eapply sub_of_trans; eauto.
  - destruct (v4_auth v) as [a|]; [|contradiction]. eapply sub_of_trans; eauto.
Qed.

Lemma item_accessors_ok x : item_wf x -> bytes_ok (snd (ext_item_slice x)) -> Forall nobug (item_accessors x).
Proof.
  destruct x; cbn [item_wf ext_item_slice item_accessors]; intros W Hok;
    try (apply Forall_app; split; [now apply raw_accessors_ok|now apply raw_conversions_ok]).
  - now apply frag_accessors_ok.
  - apply Forall_app; split; [now apply ah_accessors_ok|now apply ah_conversions_ok].
Qed.

Lemma item_windows_ok x : item_wf x -> Forall (win_ok (ext_item_slice x)) (item_windows x).
Proof.
  destruct x; cbn [item_wf ext_item_slice item_windows]; intros W;
    try (now apply raw_windows_ok); [constructor|now apply ah_windows_ok].
Qed.

Lemma ipv6_accessors_ok v :
  wf_ipv6 v -> bytes_ok (snd (x6_slice (v6_exts v))) -> Forall nobug (Ipv6SliceA.accessors v).
Proof.
  intros (Wh & l & El & G) Hok. unfold Ipv6SliceA.accessors.
  apply Forall_app. split; [now apply ipv6h_accessors_ok|].
  rewrite El. apply Forall_app. split; [repeat constructor; intros b; discriminate|].
  destruct G as (_ & _ & G3 & G4). clear El.
  induction l as [|x l IH]; [constructor|]. cbn [flat_map].
  inversion G3 as [|? ? Wx G3']; subst. inversion G4 as [|? ? Sx G4']; subst.
  apply Forall_app. split; [|now apply IH].
  apply item_accessors_ok; [exact Wx|]. eapply sub_of_bytes_ok; eauto.
Qed.

(* every window of an IPv6 slice (yielded headers and the sub-slices their accessors return)
   lies inside the extensions slice *)
Lemma ipv6_windows_ok v :
  wf_ipv6 v -> Forall (win_ok (x6_slice (v6_exts v))) (Ipv6SliceA.windows v).
Proof.
  intros (Wh & l & El & G). unfold Ipv6SliceA.windows. rewrite El.
  destruct G as (_ & _ & G3 & G4). clear El. apply Forall_app. split.
  - induction l as [|x l IH]; [constructor|]. inversion G4; subst. inversion G3; subst.
    cbn [map]. constructor; [|now apply IH]. eexists. split; [reflexivity|assumption].
  - induction l as [|x l IH]; [constructor|]. inversion G4 as [|? ? Sx G4']; subst.
    inversion G3 as [|? ? Wx G3']; subst. cbn [flat_map]. apply Forall_app. split; [|now apply IH].
    eapply Forall_impl; [|apply (item_windows_ok _ Wx)]. intros r (w & E & S).
    exists w. split; [exact E|]. eapply sub_of_trans; eauto.
Qed.

Definition macsec_payload_slice (m : macsec_slice) : slice :=
  match ms_payload m with MpUnmodified e => ep_slice e | MpModified s => s end.

Lemma macsec_wf s m :
  Macsec.from_slice s = Ok m ->
  wf_macsec m /\ sub_of (ms_header m) s /\ sub_of (macsec_payload_slice m) s.
Proof.
  unfold Macsec.from_slice. intros H. binv H header Eh. binv H epl Eepl. binv H pls Epls.
  destruct pls as (ps, src). binv H net Enet.
  apply macsech_wf in Eh. destruct Eh as (Wh & Sh).
  assert (Sp : sub_of ps s).
  { destruct epl as [req|].
    - destruct (s_len s <? s_len header + req); unfold lerr in Epls; [discriminate|].
      binv Epls p Ep. injection Epls as <- <-. now exists (s_len header), req.
    - binv Epls n En. binv Epls p Ep. injection Epls as <- <-. now exists (s_len header), n. }
  destruct net as [et|]; injection H as <-; unfold wf_macsec, macsec_payload_slice; cbn; auto.
Qed.

(* whole packets: every stored component was produced by its from_slice *)
Definition link_prov (bs : bytes) (l : link_slice) : Prop :=
  match l with
  | LkEthernet2 s => exists src, in_buf bs src /\ Ethernet2Slice.from_slice_without_fcs src = Ok s
  | LkLinuxSll h w => exists src, in_buf bs src /\ LinuxSll.from_slice src = Ok (h, w)
  | LkEtherPayload e => in_buf bs (ep_slice e)
  end.
Definition ext_prov (bs : bytes) (x : link_ext_slice) : Prop :=
  match x with
  | LeVlan s => exists src, in_buf bs src /\ SingleVlanSlice.from_slice src = Ok s
  | LeMacsec m => exists src, in_buf bs src /\ Macsec.from_slice src = Ok m
  end.
Definition net_prov (bs : bytes) (n : net_slice) : Prop :=
  match n with
  | NtIpv4 v => exists src, in_buf bs src /\
                  (Ipv4Slice.from_slice src = Ok v \/ IpSlice.from_slice src = Ok (IpV4 v))
  | NtIpv6 v => exists src, in_buf bs src /\
                  (Ipv6Slice.from_slice src = Ok v \/ IpSlice.from_slice src = Ok (IpV6 v))
  | NtArp a => exists src, in_buf bs src /\ ArpPacketSlice.from_slice src = Ok a
  end.
Definition transport_prov (bs : bytes) (t : transport_slice) : Prop :=
  match t with
  | TrUdp s => exists src, in_buf bs src /\ UdpSlice.from_slice src = Ok s
  | TrTcp hl s => exists src, in_buf bs src /\ TcpSlice.from_slice src = Ok (hl, s)
  | TrIcmpv4 s => exists src, in_buf bs src /\ Icmpv4Slice.from_slice src = Ok s
  | TrIcmpv6 s => exists src, in_buf bs src /\ Icmpv6Slice.from_slice src = Ok s
  end.
Definition optP {A} (P : A -> Prop) (o : option A) : Prop :=
  match o with Some a => P a | None => True end.

Definition sliced_wf (bs : bytes) (p : sliced_packet) : Prop :=
  optP (link_prov bs) (sp_link p) /\ Forall (ext_prov bs) (sp_exts p) /\
  optP (net_prov bs) (sp_net p) /\ optP (transport_prov bs) (sp_transport p).

(* One step of the link loop of the cursor, with the IPv6 slicer and the recursive call as
   parameters: slice_ether_type_loop (S f) is link_step slice_ipv6 (slice_ether_type_loop f)
   by computation, and so is the loop of cut slicing (Parse/HdrCut.v) with its own IPv6
   slicer.  The cursor fills link, link extensions and transport alike in both; they differ in
   the network layer only. *)
Definition link_step (v6 : cursor -> slice -> res sliced_packet)
    (rec : cursor -> ether_payload -> res sliced_packet) (c : cursor) (ep : ether_payload)
  : res sliced_packet :=
  let et := ep_ether_type ep in
  if is_vlan_type et then
    if LINK_EXTS_CAP <=? len (sp_exts (c_result c)) then Ok (c_result c)
    else
      let* vlan := map_len_err (fun e => le_add_offset e (c_offset c))
                     (SingleVlanSlice.from_slice (ep_slice ep)) in
      let* vp := SingleVlanSlice.payload vlan in
      let* c' := push_ext c (c_offset c + SingleVlanSlice.header_len) (c_src c) (LeVlan vlan) in
      rec c' vp
  else if et =? ET_MACSEC then
    if LINK_EXTS_CAP <=? len (sp_exts (c_result c)) then Ok (c_result c)
    else
      let* macsec := map_len_err (fun e => le_add_offset e (c_offset c))
                       (Macsec.from_slice (ep_slice ep)) in
      let* hl := Macsec.header_len (ms_header macsec) in
      let* sl := Macsec.short_len (ms_header macsec) in
      let src := if 0 <? sl then LsMacsecShortLength else c_src c in
      let* c' := push_ext c (c_offset c + hl) src (LeMacsec macsec) in
      match ms_payload macsec with
      | MpUnmodified e => rec c' e
      | MpModified _ => Ok (c_result c')
      end
  else if et =? ET_ARP then slice_arp c (ep_slice ep)
  else if et =? ET_IPV4 then slice_ipv4 c (ep_slice ep)
  else if et =? ET_IPV6 then v6 c (ep_slice ep)
  else Ok (c_result c).

(* The pass over the cursor, for any predicate NetP on the network slice that the network
   slicers establish together with "the IP payload lies in the input". *)
Section Cursor.
  Variables (bs : bytes) (NetP : net_slice -> Prop).

  Definition packet_wf (p : sliced_packet) : Prop :=
    optP (link_prov bs) (sp_link p) /\ Forall (ext_prov bs) (sp_exts p) /\
    optP NetP (sp_net p) /\ optP (transport_prov bs) (sp_transport p).

  Lemma set_transport_wf c t :
    packet_wf (c_result c) -> transport_prov bs t -> packet_wf (set_transport c t).
  Proof. intros (A & B & C & D) T. unfold packet_wf, set_transport. cbn. auto. Qed.

  Lemma set_net_wf c o sr n :
    packet_wf (c_result c) -> NetP n -> packet_wf (c_result (set_net c o sr n)).
  Proof. intros (A & B & C & D) T. unfold packet_wf, set_net. cbn. auto. Qed.

  Lemma set_link_wf c o l :
    packet_wf (c_result c) -> link_prov bs l -> packet_wf (c_result (set_link c o l)).
  Proof. intros (A & B & C & D) T. unfold packet_wf, set_link. cbn. auto. Qed.

  Lemma new_wf : packet_wf (c_result new).
  Proof. unfold packet_wf, new. cbn. auto. Qed.

  Lemma push_ext_wf c o sr x c' :
    packet_wf (c_result c) -> ext_prov bs x -> push_ext c o sr x = Ok c' -> packet_wf (c_result c').
  Proof.
    intros (A & B & C & D) T. unfold push_ext.
    destruct (len (sp_exts (c_result c)) <? LINK_EXTS_CAP); [|discriminate].
    intros X. injection X as <-. unfold packet_wf. cbn. repeat split; auto.
    apply Forall_app. split; [exact B|]. constructor; [exact T|constructor].
  Qed.

  (* the four transport slicers are one text up to the constructor run *)
  Lemma slice_transport_wf {T} (ctor : slice -> res T) (mk : T -> transport_slice) c s r :
    packet_wf (c_result c) -> (forall t, ctor s = Ok t -> transport_prov bs (mk t)) ->
    (let* t := map_len_err (tr_fix c) (ctor s) in Ok (set_transport c (mk t))) = Ok r ->
    packet_wf r.
  Proof.
    intros W P H. binv H t Et. apply map_len_err_inv in Et. injection H as <-.
    apply set_transport_wf; [exact W|now apply P].
  Qed.

  Lemma transport_dispatch_wf c p r :
    packet_wf (c_result c) -> in_buf bs (ipp_slice p) ->
    transport_dispatch c p = Ok r -> packet_wf r.
  Proof.
    intros W I. unfold transport_dispatch.
    destruct (ipp_fragmented p); [intros X; injection X as <-; exact W|].
    destruct (ipp_number p =? IPN_ICMP); [apply (slice_transport_wf _ TrIcmpv4); cbn; eauto|].
    destruct (ipp_number p =? IPN_UDP); [apply (slice_transport_wf _ TrUdp); cbn; eauto|].
    destruct (ipp_number p =? IPN_TCP);
      [apply (slice_transport_wf _ (fun t => TrTcp (fst t) (snd t))); [exact W|];
       intros (hl, t) E; cbn; eauto|].
    destruct (ipp_number p =? IPN_ICMPV6); [apply (slice_transport_wf _ TrIcmpv6); cbn; eauto|].
    intros X. injection X as <-. exact W.
  Qed.

  (* slice_ip, slice_ipv4 and slice_ipv6, plain or cut, are one text up to the constructor
     run: slice the network layer, record it, dispatch on its payload *)
  Lemma slice_net_wf {T} (from : res T) (mk : T -> net_slice) (pl : T -> ip_payload) f c s r :
    packet_wf (c_result c) ->
    (forall ip, from = Ok ip -> NetP (mk ip) /\ in_buf bs (ipp_slice (pl ip))) ->
    (let* ip := map_len_err f from in
     let* d := ptr_diff (ipp_slice (pl ip)) s in
     transport_dispatch (set_net c (c_offset c + d) (ipp_src (pl ip)) (mk ip)) (pl ip)) = Ok r ->
    packet_wf r.
  Proof.
    intros W P H. binv H ip Eip. apply map_len_err_inv in Eip. binv H d Ed.
    destruct (P ip Eip) as (Np & I).
    eapply transport_dispatch_wf; [|exact I|exact H]. now apply set_net_wf.
  Qed.

  Hypothesis v4_net : forall s v, in_buf bs s -> Ipv4Slice.from_slice s = Ok v ->
    NetP (NtIpv4 v) /\ in_buf bs (ipp_slice (v4_payload v)).
  Hypothesis arp_net : forall s a, in_buf bs s -> ArpPacketSlice.from_slice s = Ok a -> NetP (NtArp a).

  Lemma slice_ipv4_wf c s r :
    packet_wf (c_result c) -> in_buf bs s -> slice_ipv4 c s = Ok r -> packet_wf r.
  Proof.
    intros W I. apply (slice_net_wf (Ipv4Slice.from_slice s) NtIpv4 v4_payload); [exact W|].
    intros ip E. exact (v4_net s ip I E).
  Qed.

  Lemma slice_arp_wf c s r :
    packet_wf (c_result c) -> in_buf bs s -> slice_arp c s = Ok r -> packet_wf r.
  Proof.
    intros W I. unfold slice_arp. intros H. binv H a Ea. apply map_len_err_inv in Ea.
    injection H as <-.
    exact (set_net_wf c (c_offset c + s_len a) (c_src c) (NtArp a) W (arp_net s a I Ea)).
  Qed.

  Variables (v6 : cursor -> slice -> res sliced_packet)
            (loop : nat -> cursor -> ether_payload -> res sliced_packet).
  Hypothesis loop_O : forall c ep, loop O c ep = Bug SITE_FUEL.
  Hypothesis loop_S : forall f c ep, loop (S f) c ep = link_step v6 (loop f) c ep.
  Hypothesis v6_wf : forall c s r,
    packet_wf (c_result c) -> in_buf bs s -> v6 c s = Ok r -> packet_wf r.

  Lemma link_loop_wf fuel :
    forall c ep r,
      packet_wf (c_result c) -> in_buf bs (ep_slice ep) -> loop fuel c ep = Ok r -> packet_wf r.
  Proof.
    induction fuel as [|f IH]; intros c ep r W I H; [rewrite loop_O in H; discriminate|].
    rewrite loop_S in H. unfold link_step in H.
    destruct (is_vlan_type (ep_ether_type ep)).
    { destruct (LINK_EXTS_CAP <=? len (sp_exts (c_result c))); [injection H as <-; exact W|].
      binv H vlan Ev. apply map_len_err_inv in Ev. binv H vp Evp. binv H c' Ec'.
      pose proof (vlan_wf _ _ Ev) as (-> & Wv).
      eapply IH; [| |exact H].
      - eapply push_ext_wf; [exact W| |exact Ec']. cbn. eauto.
      - unfold SingleVlanSlice.payload in Evp. binv Evp et Eet. binv Evp pl Epl. injection Evp as <-.
        cbn [ep_slice]. unfold SingleVlanSlice.payload_slice in Epl. binv Epl n En.
        eapply sub_of_in_buf; [exact I|]. now exists 4, n. }
    destruct (ep_ether_type ep =? ET_MACSEC).
    { destruct (LINK_EXTS_CAP <=? len (sp_exts (c_result c))); [injection H as <-; exact W|].
      binv H m Em. apply map_len_err_inv in Em. binv H hl Ehl. binv H sl Esl. binv H c' Ec'.
      pose proof (macsec_wf _ _ Em) as (_ & _ & Sp).
      assert (W' : packet_wf (c_result c')).
      { eapply push_ext_wf; [exact W| |exact Ec']. cbn. eauto. }
      unfold macsec_payload_slice in Sp.
      destruct (ms_payload m) as [e|ps].
      - eapply IH; [exact W'| |exact H]. eapply sub_of_in_buf; eauto.
      - injection H as <-. exact W'. }
    destruct (ep_ether_type ep =? ET_ARP); [eapply slice_arp_wf; eauto|].
    destruct (ep_ether_type ep =? ET_IPV4); [eapply slice_ipv4_wf; eauto|].
    destruct (ep_ether_type ep =? ET_IPV6); [eapply v6_wf; eauto|].
    injection H as <-. exact W.
  Qed.

  (* slice_ethernet2 on a fresh cursor, and the start at a given ether type *)
  Lemma ethernet2_wf f o n p :
    (let* r := map_len_err f (Ethernet2Slice.from_slice_without_fcs (mk_slice bs)) in
     let* ep := Ethernet2Slice.payload r in
     loop n (set_link new o (LkEthernet2 r)) ep) = Ok p ->
    packet_wf p.
  Proof.
    pose proof (in_buf_whole bs) as I. intros H.
    binv H r Er. apply map_len_err_inv in Er. binv H ep Eep.
    pose proof (eth2_plain_wf _ _ Er) as (-> & _).
    eapply link_loop_wf; [| |exact H].
    - apply set_link_wf; [apply new_wf|]. cbn. eauto.
    - unfold Ethernet2Slice.payload in Eep. binv Eep et' Eet. binv Eep pl Epl. injection Eep as <-.
      cbn [ep_slice]. unfold Ethernet2Slice.payload_slice in Epl. binv Epl n' En.
      eapply sub_of_in_buf; [exact I|]. now exists 14, n'.
  Qed.

  Lemma ether_payload_wf et n p :
    (let ep := mkEtherPayload et LsSlice (mk_slice bs) in
     loop n (set_link new 0 (LkEtherPayload ep)) ep) = Ok p ->
    packet_wf p.
  Proof.
    pose proof (in_buf_whole bs) as I. intros H. eapply link_loop_wf; [| |exact H].
    - apply set_link_wf; [apply new_wf|]. cbn. exact I.
    - cbn. exact I.
  Qed.
End Cursor.

Section Lift.
  Variable bs : bytes.

  Lemma net_v4 s v : in_buf bs s -> Ipv4Slice.from_slice s = Ok v ->
    net_prov bs (NtIpv4 v) /\ in_buf bs (ipp_slice (v4_payload v)).
  Proof.
    intros I E. split; [cbn; eauto|]. destruct (ipv4_wf _ _ E) as (_ & _ & _ & S).
    exact (sub_of_in_buf bs _ _ I S).
  Qed.

  Lemma net_arp s a : in_buf bs s -> ArpPacketSlice.from_slice s = Ok a -> net_prov bs (NtArp a).
  Proof. intros I E. cbn. eauto. Qed.

  Lemma slice_ip_wf c s r :
    sliced_wf bs (c_result c) -> in_buf bs s -> slice_ip c s = Ok r -> sliced_wf bs r.
  Proof.
    intros W I.
    apply (slice_net_wf bs (net_prov bs) (IpSlice.from_slice s)
             (fun ip => match ip with IpV4 v => NtIpv4 v | IpV6 v => NtIpv6 v end) IpSlice.payload);
      [exact W|].
    intros ip E. pose proof (ip_wf _ _ E) as Wip.
    destruct ip as [v|v]; (split; [cbn; eauto|]); destruct Wip as (_ & _ & _ & S);
      exact (sub_of_in_buf bs _ _ I S).
  Qed.

  Lemma slice_ipv6_wf c s r :
    sliced_wf bs (c_result c) -> in_buf bs s -> slice_ipv6 c s = Ok r -> sliced_wf bs r.
  Proof.
    intros W I. apply (slice_net_wf bs (net_prov bs) (Ipv6Slice.from_slice s) NtIpv6 v6_payload); [exact W|].
    intros ip E. split; [cbn; eauto|]. destruct (ipv6_wf _ _ E) as (_ & _ & _ & S).
    exact (sub_of_in_buf bs _ _ I S).
  Qed.

  Lemma ether_loop_wf fuel c ep r :
    sliced_wf bs (c_result c) -> in_buf bs (ep_slice ep) ->
    slice_ether_type_loop fuel c ep = Ok r -> sliced_wf bs r.
  Proof.
    exact (link_loop_wf bs (net_prov bs) net_v4 net_arp slice_ipv6 slice_ether_type_loop
             (fun _ _ => eq_refl) (fun _ _ _ => eq_refl) slice_ipv6_wf fuel c ep r).
  Qed.

  Theorem sliced_wf_entry et p :
    SlicedPacket.from_ethernet bs = Ok p \/ SlicedPacket.from_linux_sll bs = Ok p \/
    SlicedPacket.from_ether_type et bs = Ok p \/ SlicedPacket.from_ip bs = Ok p ->
    sliced_wf bs p.
  Proof.
    pose proof (in_buf_whole bs) as I.
    intros [H|[H|[H|H]]].
    - exact (ethernet2_wf bs (net_prov bs) net_v4 net_arp slice_ipv6 slice_ether_type_loop
               (fun _ _ => eq_refl) (fun _ _ _ => eq_refl) slice_ipv6_wf _ _ _ p H).
    - unfold SlicedPacket.from_linux_sll, slice_linux_sll in H.
      binv H r Er. apply map_len_err_inv in Er. destruct r as (h, whole).
      binv H pt Ept. binv H pl Epl.
      pose proof (sll_wf _ _ Er) as (_ & Ew & _). cbn [snd] in Ew. subst whole.
      assert (W' : sliced_wf bs (c_result (set_link new (c_offset new + 16) (LkLinuxSll h (mk_slice bs))))).
      { apply (set_link_wf bs (net_prov bs)); [apply new_wf|]. cbn. eauto. }
      unfold LinuxSll.payload_slice in Epl. binv Epl n En.
      destruct pt; try (injection H as <-; exact W').
      unfold slice_ether_type in H. eapply ether_loop_wf; [exact W'| |exact H].
      cbn [ep_slice]. eapply sub_of_in_buf; [exact I|]. now exists 16, n.
    - exact (ether_payload_wf bs (net_prov bs) net_v4 net_arp slice_ipv6 slice_ether_type_loop
               (fun _ _ => eq_refl) (fun _ _ _ => eq_refl) slice_ipv6_wf et _ p H).
    - unfold SlicedPacket.from_ip in H.
      eapply slice_ip_wf; [apply (new_wf bs (net_prov bs))|exact I|exact H].
  Qed.

  Hypothesis Hok : bytes_ok bs.

  Definition buf_ok (r : res slice) : Prop := exists w, r = Ok w /\ in_buf bs w.

  Lemma win_ok_buf parent l : in_buf bs parent -> Forall (win_ok parent) l -> Forall buf_ok l.
  Proof.
    intros I F. eapply Forall_impl; [|exact F]. intros r (w & E & S).
    exists w. split; [exact E|]. eapply sub_of_in_buf; eauto.
  Qed.

  Lemma buf_ok_Ok s : in_buf bs s -> buf_ok (Ok s).
  Proof. intros I. exists s. auto. Qed.

  (* a stored slice, its accessors and the windows they return *)
  Lemma stored_ok s (acc : list (res unit)) win :
    in_buf bs s -> Forall nobug acc -> Forall (win_ok s) win ->
    Forall nobug acc /\ Forall buf_ok (Ok s :: win).
  Proof. intros I A W. split; [exact A|]. constructor; [now apply buf_ok_Ok|now apply (win_ok_buf s)]. Qed.

  Lemma link_ok l : link_prov bs l ->
    Forall nobug (SlicedPacketA.link_accessors l) /\ Forall buf_ok (SlicedPacketA.link_windows l).
  Proof.
    destruct l as [s|h w|e]; cbn [link_prov SlicedPacketA.link_accessors SlicedPacketA.link_windows].
    - intros (src & I & E). apply eth2_plain_wf in E. destruct E as (-> & W).
      apply stored_ok; [exact I|now apply eth2_accessors_ok|exact (eth2_windows_ok _ W)].
    - intros (src & I & E). apply sll_wf in E. destruct E as (W & Ew & Sh). cbn [fst snd] in *. subst w.
      split; [now apply sll_accessors_ok|].
      assert (Ih : in_buf bs h) by (eapply sub_of_in_buf; eauto).
      constructor; [now apply buf_ok_Ok|]. constructor; [now apply buf_ok_Ok|].
      apply Forall_app. split.
      + apply (win_ok_buf h); [exact Ih|]. apply sllh_windows_ok. exact (proj1 W).
      + apply (win_ok_buf src); [exact I|]. apply (sll_windows_ok (h, src) W).
    - intros I. split; [constructor|]. constructor; [now apply buf_ok_Ok|constructor].
  Qed.

  Lemma ext_ok x : ext_prov bs x ->
    Forall nobug (SlicedPacketA.ext_accessors x) /\ Forall buf_ok (SlicedPacketA.ext_windows x).
  Proof.
    destruct x as [s|m]; cbn [ext_prov SlicedPacketA.ext_accessors SlicedPacketA.ext_windows].
    - intros (src & I & E). apply vlan_wf in E. destruct E as (-> & W).
      apply stored_ok; [exact I|now apply vlan_accessors_ok|now apply vlan_windows_ok].
    - intros (src & I & E). apply macsec_wf in E. destruct E as (W & Sh & Sp).
      split; [now apply macsec_accessors_ok|].
      constructor; [apply buf_ok_Ok; eapply sub_of_in_buf; eauto|].
      constructor; [|constructor]. apply buf_ok_Ok. eapply sub_of_in_buf; eauto.
  Qed.

  Lemma ipv4_ok v src : in_buf bs src -> wf_ipv4 v -> ipv4_in v src ->
    Forall nobug (Ipv4SliceA.accessors v) /\ Forall buf_ok (SlicedPacketA.net_windows (NtIpv4 v)).
  Proof.
    intros I W In. pose proof In as (Sh & Sa & Sp). split.
    - apply ipv4_accessors_ok; [exact W|]. destruct (v4_auth v) as [a|]; [|exact Logic.I].
      eapply in_buf_bytes_ok; [exact Hok|]. eapply sub_of_in_buf; eauto.
    - cbn [SlicedPacketA.net_windows].
      constructor; [apply buf_ok_Ok; eapply sub_of_in_buf; eauto|].
      constructor; [apply buf_ok_Ok; eapply sub_of_in_buf; eauto|].
      apply Forall_app. split.
      + destruct (v4_auth v) as [a|]; [|constructor].
        constructor; [|constructor]. apply buf_ok_Ok. eapply sub_of_in_buf; eauto.
      + apply (win_ok_buf src); [exact I|]. now apply ipv4_windows_in.
  Qed.

  Lemma ipv6_ok v src : in_buf bs src -> wf_ipv6 v -> ipv6_in v src ->
    Forall nobug (Ipv6SliceA.accessors v) /\ Forall buf_ok (SlicedPacketA.net_windows (NtIpv6 v)).
  Proof.
    intros I W (Sh & Sx & Sp).
    assert (Ix : in_buf bs (x6_slice (v6_exts v))) by (eapply sub_of_in_buf; eauto).
    split.
    - apply ipv6_accessors_ok; [exact W|]. eapply in_buf_bytes_ok; eauto.
    - cbn [SlicedPacketA.net_windows].
      apply Forall_cons; [apply buf_ok_Ok; exact (sub_of_in_buf bs _ _ I Sh)|].
      apply Forall_cons; [now apply buf_ok_Ok|].
      apply Forall_cons; [apply buf_ok_Ok; exact (sub_of_in_buf bs _ _ I Sp)|].
      apply (win_ok_buf (x6_slice (v6_exts v))); [exact Ix|]. now apply ipv6_windows_ok.
  Qed.

  Lemma net_ok n : net_prov bs n ->
    Forall nobug (SlicedPacketA.net_accessors n) /\ Forall buf_ok (SlicedPacketA.net_windows n).
  Proof.
    destruct n as [v|v|a]; cbn [net_prov SlicedPacketA.net_accessors].
    - intros (src & I & [E|E]).
      + apply ipv4_wf in E. destruct E. now apply (ipv4_ok v src).
      + apply ip_wf in E. destruct E. now apply (ipv4_ok v src).
    - intros (src & I & [E|E]).
      + apply ipv6_wf in E. destruct E. now apply (ipv6_ok v src).
      + apply ip_wf in E. destruct E. now apply (ipv6_ok v src).
    - intros (src & I & E). apply arp_wf in E. destruct E as (W & S).
      pose proof (sub_of_in_buf _ _ _ I S) as Ia.
      apply stored_ok; [exact Ia| |now apply arp_windows_ok].
      apply Forall_app. split; [now apply arp_accessors_ok|].
      apply arp_conversions_ok; [exact W|]. eapply in_buf_bytes_ok; eauto.
  Qed.

  Lemma transport_ok t : transport_prov bs t ->
    Forall nobug (SlicedPacketA.transport_accessors t) /\ Forall buf_ok (SlicedPacketA.transport_windows t).
  Proof.
    destruct t as [s|hl s|s|s];
      cbn [transport_prov SlicedPacketA.transport_accessors SlicedPacketA.transport_windows].
    - intros (src & I & E). apply udp_wf in E. destruct E as (W & S).
      apply stored_ok; [exact (sub_of_in_buf _ _ _ I S)|now apply udp_accessors_ok|now apply udp_windows_ok].
    - intros (src & I & E). apply tcp_wf in E. destruct E as (W & Es). cbn [snd] in Es. subst src.
      apply stored_ok; [exact I|now apply tcp_accessors_ok|exact (tcp_windows_ok (hl, s) W)].
    - intros (src & I & E). apply icmp4_wf in E. destruct E as (-> & W).
      apply stored_ok; [exact I|now apply icmp4_accessors_ok|now apply icmp4_windows_ok].
    - intros (src & I & E). apply icmp6_wf in E. destruct E as (-> & W).
      apply stored_ok; [exact I|now apply icmp6_accessors_ok|now apply icmp6_windows_ok].
  Qed.

  Lemma optP_ok {A B} (P : A -> Prop) (Q : B -> Prop) (f : A -> list B) o :
    (forall a, P a -> Forall Q (f a)) -> optP P o -> Forall Q (SlicedPacketA.opt f o).
  Proof. intros H. destruct o as [a|]; cbn; [apply H|constructor]. Qed.

  Lemma Forall_flat_map {A B} (P : A -> Prop) (Q : B -> Prop) (f : A -> list B) l :
    (forall a, P a -> Forall Q (f a)) -> Forall P l -> Forall Q (flat_map f l).
  Proof.
    intros H F. induction F as [|a l Pa F IH]; cbn [flat_map]; [constructor|].
    apply Forall_app. split; [now apply H|exact IH].
  Qed.

  Theorem sliced_ok p :
    sliced_wf bs p -> Forall nobug (SlicedPacketA.accessors p) /\ Forall buf_ok (SlicedPacketA.windows p).
  Proof.
    intros (A & B & C & D). unfold SlicedPacketA.accessors, SlicedPacketA.windows.
    split; repeat (apply Forall_app; split).
    1, 5: eapply optP_ok; [|exact A]; intros a Ha; apply (link_ok a Ha).
    1, 4: eapply Forall_flat_map; [|exact B]; intros a Ha; apply (ext_ok a Ha).
    1, 3: eapply optP_ok; [|exact C]; intros a Ha; apply (net_ok a Ha).
    all: eapply optP_ok; [|exact D]; intros a Ha; apply (transport_ok a Ha).
  Qed.
End Lift.

(* the statements Props/C01.v and Props/C02.v refer to *)
Lemma win_ok_mono p s l : sub_of p s -> Forall (win_ok p) l -> Forall (win_ok s) l.
Proof.
  intros S F. eapply Forall_impl; [|exact F]. intros r (w & E & Sw).
  exists w. split; [exact E|]. eapply sub_of_trans; eauto.
Qed.

Lemma win_ok_arith s r : win_ok s r ->
  exists w, r = Ok w /\ s_off s <= s_off w /\ s_off w + s_len w <= s_off s + s_len s.
Proof. intros (w & E & Sw). exists w. split; [exact E|]. exact (sub_of_inside _ _ Sw). Qed.

Definition entry (bs : bytes) (et : N) (p : sliced_packet) : Prop :=
  SlicedPacket.from_ethernet bs = Ok p \/ SlicedPacket.from_linux_sll bs = Ok p \/
  SlicedPacket.from_ether_type et bs = Ok p \/ SlicedPacket.from_ip bs = Ok p.

Theorem packet_accessors_no_bug bs et p :
  bytes_ok bs -> entry bs et p ->
  sliced_wf bs p /\ forall r, In r (SlicedPacketA.accessors p) -> forall b, r <> Bug b.
Proof.
  intros Hok E. pose proof (sliced_wf_entry bs et p E) as W. split; [exact W|].
  pose proof (proj1 (sliced_ok bs Hok p W)) as F. rewrite Forall_forall in F. exact F.
Qed.

Theorem packet_windows_inside bs et p :
  bytes_ok bs -> entry bs et p ->
  forall r, In r (SlicedPacketA.windows p) ->
    exists w, r = Ok w /\ s_off w + s_len w <= len bs /\
              snd w = take (s_len w) (drop (s_off w) bs).
Proof.
  intros Hok E r Hr. pose proof (sliced_wf_entry bs et p E) as W.
  pose proof (proj2 (sliced_ok bs Hok p W)) as F. rewrite Forall_forall in F.
  destruct (F r Hr) as (w & -> & I). exists w. split; [reflexivity|].
  split; [now apply in_buf_bounds|].
  destruct I as (pos & lim & R). rewrite (repr_off _ _ _ _ R), (repr_len _ _ _ _ R).
  destruct R as (-> & _). reflexivity.
Qed.

(* totality reading (C02): every accessor run returns normally, Ok or Err *)
Theorem packet_accessors_total bs et p :
  bytes_ok bs -> entry bs et p ->
  forall r, In r (SlicedPacketA.accessors p) -> r = Ok tt \/ exists e, r = Err e.
Proof.
  intros Hok E r Hr. destruct (packet_accessors_no_bug bs et p Hok E) as (_ & F).
  specialize (F r Hr). destruct r as [[]|e|b]; [now left|right; eauto|].
  exfalso. now apply (F b).
Qed.

(* the extension iterator on every Ipv6ExtensionsSlice built by from_slice *)
Theorem exts_iter_bounded nh s x nx rest :
  Ipv6ExtensionsSlice.from_slice nh s = Ok (x, nx, rest) ->
  exists l, Ipv6ExtIterA.items x = Ok l /\
            8 * len l <= s_len (x6_slice x) /\
            tiles (s_off (x6_slice x)) (map item_win l) (s_off (x6_slice x) + s_len (x6_slice x)) /\
            Forall item_wf l /\
            Forall (fun i => sub_of (ext_item_slice i) (x6_slice x)) l.
Proof.
  intros H. destruct (exts_good_from_slice _ _ _ _ _ H) as ((l & E & G1 & G2 & G3 & G4) & _).
  exists l. auto.
Qed.

(* the item list, its length bound and the tiling, for the IPv6 slice stored in a sliced packet *)
Theorem packet_exts_iter_bounded bs et p v :
  entry bs et p -> sp_net p = Some (NtIpv6 v) ->
  exists l, Ipv6ExtIterA.items (v6_exts v) = Ok l /\
            8 * len l <= s_len (x6_slice (v6_exts v)) /\
            tiles (s_off (x6_slice (v6_exts v))) (map item_win l)
                  (s_off (x6_slice (v6_exts v)) + s_len (x6_slice (v6_exts v))).
Proof.
  intros E Hn. pose proof (sliced_wf_entry bs et p E) as (_ & _ & C & _).
  rewrite Hn in C. cbn in C. destruct C as (src & I & [F|F]).
  - apply ipv6_wf in F. destruct F as ((_ & l & El & G1 & G2 & _) & _). eauto.
  - apply ip_wf in F. destruct F as ((_ & l & El & G1 & G2 & _) & _). eauto.
Qed.

(* the two unwraps named by C02 *)
Theorem auth_to_header_unwrap s h :
  IpAuthHeaderSlice.from_slice s = Ok h -> bytes_ok (snd s) -> exists v, IpAuthHeaderA.to_header h = Ok v.
Proof.
  intros H Hok. apply ah_wf in H. destruct H as (W & S).
  exact (ah_to_header_ok h W (sub_of_bytes_ok _ _ S Hok)).
Qed.

Theorem raw_ext_to_header_unwrap s h :
  Ipv6RawExtHeaderSlice.from_slice s = Ok h -> bytes_ok (snd s) ->
  exists v, Ipv6RawExtHeaderA.to_header h = Ok v.
Proof.
  intros H Hok. apply raw_wf in H. destruct H as (W & S).
  exact (raw_to_header_ok h W (sub_of_bytes_ok _ _ S Hok)).
Qed.

(* single layers: provenance from the constructor on ANY slice s *)
Theorem single_layer_ok :
  (forall s e, Ethernet2A.from_slice_without_fcs s = Ok e \/ Ethernet2A.from_slice_with_crc32_fcs s = Ok e ->
     Forall nobug (Ethernet2A.accessors e) /\ Forall (win_ok s) (Ethernet2A.windows e)) /\
  (forall s v, SingleVlanSlice.from_slice s = Ok v ->
     Forall nobug (SingleVlanA.accessors v) /\ Forall (win_ok s) (SingleVlanA.windows v)) /\
  (forall s h, LinuxSll.header_from_slice s = Ok h ->
     Forall nobug (LinuxSllHeaderA.accessors h) /\ Forall (win_ok s) (LinuxSllHeaderA.windows h)) /\
  (forall s x, LinuxSll.from_slice s = Ok x ->
     Forall nobug (LinuxSllA.accessors x) /\ Forall (win_ok s) (LinuxSllA.windows x)) /\
  (forall s h, Macsec.header_from_slice s = Ok h -> Forall nobug (MacsecHeaderA.accessors h)) /\
  (forall s m, Macsec.from_slice s = Ok m -> Forall nobug (MacsecA.accessors m)) /\
  (forall s a, ArpPacketSlice.from_slice s = Ok a ->
     Forall nobug (ArpPacketA.accessors a) /\ Forall (win_ok s) (ArpPacketA.windows a) /\
     (bytes_ok (snd s) -> Forall nobug (ArpPacketA.conversions a))) /\
  (forall s h, Ipv4HeaderSlice.from_slice s = Ok h ->
     Forall nobug (Ipv4HeaderA.accessors h) /\ Forall (win_ok s) (Ipv4HeaderA.windows h)) /\
  (forall s h, IpAuthHeaderSlice.from_slice s = Ok h ->
     Forall nobug (IpAuthHeaderA.accessors h) /\ Forall (win_ok s) (IpAuthHeaderA.windows h) /\
     (bytes_ok (snd s) -> Forall nobug (IpAuthHeaderA.conversions h))) /\
  (forall s h, Ipv6HeaderSlice.from_slice s = Ok h -> Forall nobug (Ipv6HeaderA.accessors h)) /\
  (forall s h, Ipv6RawExtHeaderSlice.from_slice s = Ok h ->
     Forall nobug (Ipv6RawExtHeaderA.accessors h) /\ Forall (win_ok s) (Ipv6RawExtHeaderA.windows h) /\
     (bytes_ok (snd s) -> Forall nobug (Ipv6RawExtHeaderA.conversions h))) /\
  (forall s h, Ipv6FragmentHeaderSlice.from_slice s = Ok h -> Forall nobug (Ipv6FragmentHeaderA.accessors h)) /\
  (forall s v, Ipv4Slice.from_slice s = Ok v \/ IpSlice.from_slice s = Ok (IpV4 v) ->
     bytes_ok (snd s) -> Forall nobug (Ipv4SliceA.accessors v)) /\
  (forall s v, Ipv6Slice.from_slice s = Ok v \/ IpSlice.from_slice s = Ok (IpV6 v) ->
     bytes_ok (snd s) ->
     Forall nobug (Ipv6SliceA.accessors v) /\ Forall (win_ok s) (Ipv6SliceA.windows v)) /\
  (forall s h, UdpSlice.header_from_slice s = Ok h -> Forall nobug (UdpA.header_accessors h)) /\
  (forall s u, UdpSlice.from_slice s = Ok u \/ UdpSlice.from_slice_lax s = Ok u ->
     Forall nobug (UdpA.accessors u) /\ Forall (win_ok s) (UdpA.windows u)) /\
  (forall s x, TcpSlice.from_slice s = Ok x ->
     Forall nobug (TcpSliceA.accessors x) /\ Forall (win_ok s) (TcpSliceA.windows x)) /\
  (forall s h, TcpHeaderSliceA.from_slice s = Ok h ->
     Forall nobug (TcpHeaderSliceA.accessors h) /\ Forall (win_ok s) (TcpHeaderSliceA.windows h)) /\
  (forall s v, Icmpv4Slice.from_slice s = Ok v ->
     Forall nobug (Icmpv4A.accessors v) /\ Forall (win_ok s) (Icmpv4A.windows v)) /\
  (forall s v, Icmpv6Slice.from_slice s = Ok v ->
     Forall nobug (Icmpv6A.accessors v) /\ Forall (win_ok s) (Icmpv6A.windows v)).
Proof.
  repeat match goal with |- _ /\ _ => split end.
  - intros s e [H|H]; [apply eth2_wf_without_fcs in H|apply eth2_wf_with_fcs in H];
      destruct H as (W & <-); (split; [now apply eth2_accessors_ok|now apply eth2_windows_ok]).
  - intros s v H. apply vlan_wf in H. destruct H as (-> & W).
    split; [now apply vlan_accessors_ok|now apply vlan_windows_ok].
  - intros s h H. apply sllh_wf in H. destruct H as (W & S).
    split; [now apply sllh_accessors_ok|]. eapply win_ok_mono; [exact S|now apply sllh_windows_ok].
  - intros s x H. apply sll_wf in H. destruct H as (W & <- & S).
    split; [now apply sll_accessors_ok|now apply sll_windows_ok].
  - intros s h H. apply macsech_wf in H. destruct H as (W & S). now apply macsech_accessors_ok.
  - intros s m H. apply macsec_wf in H. destruct H as (W & _). now apply macsec_accessors_ok.
  - intros s a H. apply arp_wf in H. destruct H as (W & S).
    split; [now apply arp_accessors_ok|]. split.
    + eapply win_ok_mono; [exact S|now apply arp_windows_ok].
    + intros Hok. apply arp_conversions_ok; [exact W|]. eapply sub_of_bytes_ok; eauto.
  - intros s h H. apply ipv4h_wf in H. destruct H as (W & S).
    split; [now apply ipv4h_accessors_ok|]. eapply win_ok_mono; [exact S|now apply ipv4h_windows_ok].
  - intros s h H. apply ah_wf in H. destruct H as (W & S).
    split; [now apply ah_accessors_ok|]. split.
    + eapply win_ok_mono; [exact S|now apply ah_windows_ok].
    + intros Hok. apply ah_conversions_ok; [exact W|]. eapply sub_of_bytes_ok; eauto.
  - intros s h H. apply ipv6h_wf in H. destruct H as (W & S). now apply ipv6h_accessors_ok.
  - intros s h H. apply raw_wf in H. destruct H as (W & S).
    split; [now apply raw_accessors_ok|]. split.
    + eapply win_ok_mono; [exact S|now apply raw_windows_ok].
    + intros Hok. apply raw_conversions_ok; [exact W|]. eapply sub_of_bytes_ok; eauto.
  - intros s h H. apply frag_wf in H. destruct H as (W & S). now apply frag_accessors_ok.
  - intros s v H Hok.
    assert (X : wf_ipv4 v /\ ipv4_in v s) by (destruct H as [H|H]; [now apply ipv4_wf|exact (ip_wf _ _ H)]).
    destruct X as (W & _ & Sa & _). apply ipv4_accessors_ok; [exact W|].
    destruct (v4_auth v) as [a|]; [|exact Logic.I]. eapply sub_of_bytes_ok; eauto.
  - intros s v H Hok.
    assert (X : wf_ipv6 v /\ ipv6_in v s) by (destruct H as [H|H]; [now apply ipv6_wf|exact (ip_wf _ _ H)]).
    destruct X as (W & _ & Sx & _). split.
    + apply ipv6_accessors_ok; [exact W|]. eapply sub_of_bytes_ok; eauto.
    + eapply win_ok_mono; [exact Sx|now apply ipv6_windows_ok].
  - intros s h H. apply udph_wf in H. destruct H as (W & S). now apply udph_accessors_ok.
  - intros s u H.
    assert (X : wf_udp u /\ sub_of u s) by (destruct H as [H|H]; [now apply udp_wf|now apply udp_lax_wf]).
    destruct X as (W & S). split; [now apply udp_accessors_ok|].
    eapply win_ok_mono; [exact S|now apply udp_windows_ok].
  - intros s x H. apply tcp_wf in H. destruct H as (W & <-).
    split; [now apply tcp_accessors_ok|now apply tcp_windows_ok].
  - intros s h H. apply tcph_wf in H. destruct H as (W & S).
    split; [now apply tcph_accessors_ok|]. eapply win_ok_mono; [exact S|now apply tcph_windows_ok].
  - intros s v H. apply icmp4_wf in H. destruct H as (-> & W).
    split; [now apply icmp4_accessors_ok|now apply icmp4_windows_ok].
  - intros s v H. apply icmp6_wf in H. destruct H as (-> & W).
    split; [now apply icmp6_accessors_ok|now apply icmp6_windows_ok].
Qed.
