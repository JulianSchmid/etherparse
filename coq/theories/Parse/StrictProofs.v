(* Parse/StrictProofs.v -- the strict slicing model (Slices.v, Cursor.v) agrees
   with the wire specification (WireSpec.v) for every byte string. *)
From EP Require Import Base.Bytes Parse.Types Parse.Slices Parse.Cursor Parse.View
  Parse.WireSpec Parse.Repr.
From EP Require Parse.WireSpecFacts BitFields.BitLemmas.
From Coq Require Import ZArith Lia ZifyN ZifyBool.
Import SlicedPacketCursor.

Local Open Scope N_scope.

Local Notation macsec_hl := WireSpecFacts.macsec_hl.


(* known finding F7: the two errors whose len_source names the field that
   produced required_len *)
Definition F7 (e : len_error) : Prop :=
  (le_layer e = LyArp /\ le_src e = LsArpAddrLengths) \/
  (le_layer e = LyMacsecPacket /\ le_src e = LsMacsecShortLength).

Definition len_rel (m s : len_error) : Prop :=
  le_required m = le_required s /\ le_len m = le_len s /\ le_layer m = le_layer s /\
  le_off m = le_off s /\ (le_src m = le_src s \/ le_src m = LsSlice \/ F7 m).

Definition res_rel (m s : vres) : Prop :=
  match m, s with
  | VOk a, VOk b => a = b
  | VErr (EContent a), VErr (EContent b) => a = b
  | VErr (ELen a), VErr (ELen b) => len_rel a b
  | _, _ => False
  end.

(* the cursor's idea of the length source is the true one or "slice" *)
Definition src_ok (cs src : len_source) : Prop := cs = src \/ cs = LsSlice.

Lemma src_ok_refl s : src_ok s s. Proof. now left. Qed.
Lemma src_ok_slice s : src_ok LsSlice s. Proof. now right. Qed.

Ltac get_prefix R n h Eh Rh :=
  match type of R with
  | repr ?bs ?s ?pos ?lim =>
      let H := fresh in
      assert (H : n <= lim - pos) by lia;
      destruct (repr_prefix bs s pos lim n R H) as (h & Eh & Rh); clear H
  end.

Ltac get_sub R k n h Eh Rh :=
  match type of R with
  | repr ?bs ?s ?pos ?lim =>
      let H := fresh in
      assert (H : k + n <= lim - pos) by lia;
      destruct (repr_subU bs s pos lim k n R H) as (h & Eh & Rh); clear H
  end.

Ltac rd8 R i :=
  match type of R with
  | repr ?bs ?s ?pos ?lim => rewrite (repr_rdU bs s pos lim i R) by lia; cbn [bind]
  end.
Ltac rd16 R i :=
  match type of R with
  | repr ?bs ?s ?pos ?lim => rewrite (repr_rd16 bs s pos lim i R) by lia; cbn [bind]
  end.

Ltac len_rel_tac :=
  unfold len_rel, le_add_offset, le_set_src; cbn;
  repeat split; try lia; auto.

Lemma view_set_transport c t :
  view (set_transport c t) = with_tr (view (c_result c)) (view_tr t).
Proof. reflexivity. Qed.

Lemma view_set_net c o sr n :
  view (c_result (set_net c o sr n)) = with_net (view (c_result c)) (view_net n).
Proof. reflexivity. Qed.

Definition all_bytes : list N := map N.of_nat (seq 0 256).

Lemma all_bytes_in b : b < 256 -> In b all_bytes.
Proof.
  intros H. unfold all_bytes. apply in_map_iff. exists (N.to_nat b). split; [lia|].
  apply in_seq. lia.
Qed.

Lemma byte_sweep (P : N -> bool) :
  forallb P all_bytes = true -> forall b, b < 256 -> P b = true.
Proof. intros H b Hb. rewrite forallb_forall in H. apply H. now apply all_bytes_in. Qed.

Lemma shr4_div16 b : N.shiftr b 4 = b / 16.
Proof. now rewrite N.shiftr_div_pow2. Qed.

Lemma shr4_div b : b < 256 -> N.shiftr b 4 = b / 16.
Proof. intros _. apply shr4_div16. Qed.

Lemma land15_mod b : N.land b 15 = b mod 16.
Proof. change 15 with (N.ones 4). now rewrite N.land_ones. Qed.

Lemma land63_mod b : N.land b 63 = b mod 64.
Proof. change 63 with (N.ones 6). now rewrite N.land_ones. Qed.

Lemma tcp_hl_bits b : b < 256 -> N.shiftr (N.land b 240) 2 = (b / 16) * 4.
Proof.
  intros H.
  apply N.eqb_eq.
  apply (byte_sweep (fun b => N.shiftr (N.land b 240) 2 =? (b / 16) * 4)); [vm_compute; reflexivity|exact H].
Qed.

Lemma tcp_do_bits b : b < 256 -> (N.shiftr ((b / 16) * 4) 2) mod 256 = b / 16.
Proof.
  intros H. rewrite N.shiftr_div_pow2. change (2 ^ 2) with 4. rewrite N.div_mul by discriminate.
  apply N.mod_small, N.div_lt_upper_bound; lia.
Qed.

(* one bit, and a two-bit field, of the MACsec TCI octet *)
Lemma bit32 b : b < 256 -> Macsec.bit b 32 = negb ((b / 32) mod 2 =? 0).
Proof.
  intros _. unfold Macsec.bit. change 32 with (2 ^ 5). rewrite BitLemmas.land_bit. change (2 ^ 5) with 32.
  destruct ((b / 32) mod 2 =? 0) eqn:E; lia.
Qed.

Lemma land12 b : b < 256 -> (N.land b 12 =? 0) = ((b / 4) mod 4 =? 0).
Proof.
  intros _. change 12 with (N.ones 2 * 2 ^ 2). rewrite BitLemmas.land_field. change (2 ^ 2) with 4.
  destruct ((b / 4) mod 4 =? 0) eqn:E; lia.
Qed.

(* What a transport decoder answers on the window [pos, lim), in the words of the format:
   its length errors lie at pos, and where they name the slice as the source of the limit
   the caller knows the source src (tr_fix of Parse/Cursor.v, without the cursor). *)
Definition tr_err (src : len_source) (pos : N) (l : len_error) : len_error :=
  tr_fix (mkCursor pos src (mkSliced None [] None None)) l.

Definition tr_exact {A} (r : res A) (ok : A -> vres) (src : len_source) (pos : N) (w : vres) : Prop :=
  match r with
  | Ok a => w = ok a
  | Err (ELen l) => w = VErr (ELen (tr_err src pos l))
  | Err (EContent ce) => w = VErr (EContent ce)
  | Bug _ => False
  end.

Lemma tr_err_slice pos l : tr_err LsSlice pos l = le_add_offset l pos.
Proof. destruct l as [r a s ly o]. destruct s; reflexivity. Qed.

Lemma tr_fix_rel c src l : src_ok (c_src c) src -> len_rel (tr_fix c l) (tr_err src (c_offset c) l).
Proof.
  intros Hs. destruct l as [r a s ly o]. unfold tr_err, tr_fix, len_rel.
  destruct s; cbn; repeat split; auto. destruct Hs as [->| ->]; auto.
Qed.

(* the slicers of Parse/Cursor.v that end the walk: decode, record the transport slice *)
Lemma tr_exact_rel {A} (r : res A) (mk : A -> transport_slice) c src w :
  src_ok (c_src c) src ->
  tr_exact r (fun a => VOk (with_tr (view (c_result c)) (view_tr (mk a)))) src (c_offset c) w ->
  res_rel (vres_of (let* a := map_len_err (tr_fix c) r in Ok (set_transport c (mk a)))) w.
Proof.
  intros Hs. destruct r as [a|[l|ce]|b]; cbn [tr_exact map_len_err bind vres_of]; intros X;
    [subst w; reflexivity|subst w|subst w; reflexivity|contradiction].
  now apply tr_fix_rel.
Qed.

Section TransportExact.
  Variables (bs : bytes) (s : slice) (pos lim : N) (p : vpacket) (src : len_source).
  Hypothesis Hok : bytes_ok bs.
  Hypothesis R : repr bs s pos lim.

  Lemma udp_exact :
    tr_exact (UdpSlice.from_slice s) (fun r => VOk (with_tr p (VUdp (win_of r)))) src pos
      (wire_udp bs p src pos lim).
  Proof.
    unfold UdpSlice.from_slice, UdpSlice.header_from_slice, UdpSlice.length, wire_udp.
    rewrite (repr_len _ _ _ _ R).
    destruct (lim - pos <? 8) eqn:E8; [reflexivity|].
    get_prefix R 8 h Eh Rh. rewrite Eh. cbn [bind]. rd16 Rh 4.
    destruct (lim - pos <? W bs (pos + 4)) eqn:El; [reflexivity|].
    destruct (W bs (pos + 4) =? 0) eqn:E0; [cbn; now rewrite (repr_win _ _ _ _ R)|].
    destruct (W bs (pos + 4) <? 8) eqn:E8'; [reflexivity|].
    get_prefix R (W bs (pos + 4)) u Eu Ru. rewrite Eu. cbn. rewrite (repr_win _ _ _ _ Ru).
    repeat f_equal. lia.
  Qed.

  Lemma tcp_exact :
    tr_exact (TcpSlice.from_slice s) (fun r => VOk (with_tr p (VTcp (fst r) (win_of (snd r))))) src pos
      (wire_tcp bs p src pos lim).
  Proof.
    unfold TcpSlice.from_slice, wire_tcp. rewrite (repr_len _ _ _ _ R).
    destruct (lim - pos <? 20) eqn:E20; [reflexivity|].
    rd8 R 12. pose proof (B_lt bs (pos + 12) Hok) as Hb. rewrite (tcp_hl_bits _ Hb).
    assert (Hd : (B bs (pos + 12) / 16 * 4 <? 20) = (B bs (pos + 12) / 16 <? 5)).
    { destruct (B bs (pos + 12) / 16 <? 5) eqn:E; lia. }
    rewrite Hd.
    destruct (B bs (pos + 12) / 16 <? 5) eqn:E5; [cbn; now rewrite (tcp_do_bits _ Hb)|].
    destruct (lim - pos <? B bs (pos + 12) / 16 * 4) eqn:El; [reflexivity|].
    cbn. now rewrite (repr_win _ _ _ _ R).
  Qed.

  Lemma icmp4_exact :
    tr_exact (Icmpv4Slice.from_slice s) (fun r => VOk (with_tr p (VIcmpv4 (win_of r)))) src pos
      (wire_icmp4 bs p src pos lim).
  Proof.
    unfold Icmpv4Slice.from_slice, wire_icmp4. rewrite (repr_len _ _ _ _ R).
    destruct (lim - pos <? 8) eqn:E8; [reflexivity|].
    rd8 R 0. rd8 R 1. rewrite N.add_0_r.
    rewrite (N.eqb_sym 0 (B bs (pos + 1))), (N.eqb_sym 20 (lim - pos)).
    destruct ((B bs pos =? 13) && (B bs (pos + 1) =? 0) && negb (lim - pos =? 20)); [reflexivity|].
    destruct ((B bs pos =? 14) && (B bs (pos + 1) =? 0) && negb (lim - pos =? 20)); [reflexivity|].
    cbn. now rewrite (repr_win _ _ _ _ R).
  Qed.

  Lemma icmp6_exact :
    tr_exact (Icmpv6Slice.from_slice s) (fun r => VOk (with_tr p (VIcmpv6 (win_of r)))) src pos
      (wire_icmp6 p src pos lim).
  Proof.
    unfold Icmpv6Slice.from_slice, Icmpv6Slice.MAX_LEN, wire_icmp6. rewrite (repr_len _ _ _ _ R).
    destruct (lim - pos <? 8) eqn:E8; [reflexivity|].
    destruct (4294967295 <? lim - pos) eqn:Em; [reflexivity|].
    cbn. now rewrite (repr_win _ _ _ _ R).
  Qed.
End TransportExact.

Section Transport.
  Variables (bs : bytes) (c : cursor) (s : slice) (pos lim : N) (src : len_source).
  Hypothesis Hok : bytes_ok bs.
  Hypothesis R : repr bs s pos lim.
  Hypothesis Hoff : c_offset c = pos.
  Hypothesis Hsrc : src_ok (c_src c) src.

  Lemma udp_rel :
    res_rel (vres_of (slice_udp c s)) (wire_udp bs (view (c_result c)) src pos lim).
  Proof. apply (tr_exact_rel _ TrUdp c src _ Hsrc). rewrite Hoff. now apply udp_exact. Qed.

  Lemma tcp_rel :
    res_rel (vres_of (slice_tcp c s)) (wire_tcp bs (view (c_result c)) src pos lim).
  Proof.
    apply (tr_exact_rel _ (fun r => TrTcp (fst r) (snd r)) c src _ Hsrc). rewrite Hoff. now apply tcp_exact.
  Qed.

  Lemma icmp4_rel :
    res_rel (vres_of (slice_icmp4 c s)) (wire_icmp4 bs (view (c_result c)) src pos lim).
  Proof. apply (tr_exact_rel _ TrIcmpv4 c src _ Hsrc). rewrite Hoff. now apply icmp4_exact. Qed.

  Lemma icmp6_rel :
    res_rel (vres_of (slice_icmp6 c s)) (wire_icmp6 (view (c_result c)) src pos lim).
  Proof. apply (tr_exact_rel _ TrIcmpv6 c src _ Hsrc). rewrite Hoff. now apply (icmp6_exact bs). Qed.
End Transport.

Lemma transport_rel bs c p pos lim src :
  bytes_ok bs -> repr bs (ipp_slice p) pos lim -> c_offset c = pos -> src_ok (c_src c) src ->
  res_rel (vres_of (transport_dispatch c p))
          (wire_transport bs (view (c_result c)) (ipp_number p) (ipp_fragmented p) src pos lim).
Proof.
  intros Hok R Hoff Hsrc. unfold transport_dispatch, wire_transport.
  destruct (ipp_fragmented p); [reflexivity|].
  change IPN_ICMP with 1. change IPN_UDP with 17. change IPN_TCP with 6. change IPN_ICMPV6 with 58.
  destruct (ipp_number p =? 1); [apply (icmp4_rel bs); assumption|].
  destruct (ipp_number p =? 17); [apply (udp_rel bs); assumption|].
  destruct (ipp_number p =? 6); [apply (tcp_rel bs); assumption|].
  destruct (ipp_number p =? 58); [apply (icmp6_rel bs); assumption|].
  reflexivity.
Qed.

Lemma ah_eq bs s pos lim :
  repr bs s pos lim ->
  IpAuthHeaderSlice.from_slice s =
    (if lim - pos <? 12 then lerr 12 (lim - pos) LsSlice LyIpAuthHeader
     else if B bs (pos + 1) =? 0 then Err (EContent CeAuthZeroPayloadLen)
     else if lim - pos <? (B bs (pos + 1) + 2) * 4
          then lerr ((B bs (pos + 1) + 2) * 4) (lim - pos) LsSlice LyIpAuthHeader
          else subU s 0 ((B bs (pos + 1) + 2) * 4)).
Proof.
  intros R. unfold IpAuthHeaderSlice.from_slice. rewrite (repr_len _ _ _ _ R).
  destruct (lim - pos <? 12) eqn:E; [reflexivity|].
  rd8 R 1.
  assert (Hz : (B bs (pos + 1) <? 1) = (B bs (pos + 1) =? 0)).
  { destruct (B bs (pos + 1) =? 0) eqn:E0; lia. }
  rewrite Hz. reflexivity.
Qed.

Definition v4_cont (c : cursor) (s : slice) (ip : ipv4_slice) : res sliced_packet :=
  let payload := v4_payload ip in
  let* d := ptr_diff (ipp_slice payload) s in
  transport_dispatch (set_net c (c_offset c + d) (ipp_src payload) (NtIpv4 ip)) payload.

Lemma slice_ipv4_unfold c s :
  slice_ipv4 c s =
  (let* ip := map_len_err (fun e => le_add_offset e (c_offset c)) (Ipv4Slice.from_slice s) in
   v4_cont c s ip).
Proof. reflexivity. Qed.

Lemma ipv4_frag_eq bs h pos hl :
  bytes_ok bs -> repr bs h pos (pos + hl) -> 20 <= hl ->
  Ipv4HeaderSlice.is_fragmenting_payload h = Ok (ipv4_fragmented bs pos).
Proof.
  intros Hok R Hl. unfold Ipv4HeaderSlice.is_fragmenting_payload,
    Ipv4HeaderSlice.more_fragments, Ipv4HeaderSlice.fragments_offset, ipv4_fragmented.
  rd8 R 6. rd8 R 7.
  pose proof (B_lt bs (pos + 6) Hok) as H6. pose proof (B_lt bs (pos + 7) Hok) as H7.
  f_equal. f_equal.
  - exact (bit32 _ H6).
  - f_equal. unfold W, be16.
    replace (pos + 6 + 1) with (pos + 7) by lia.
    assert (X : N.land (B bs (pos + 6)) 31 = B bs (pos + 6) mod 32).
    { change 31 with (N.ones 5). now rewrite N.land_ones. }
    rewrite X.
    assert (Y : (B bs (pos + 6) * 256 + B bs (pos + 7)) mod 8192
                = (B bs (pos + 6) mod 32) * 256 + B bs (pos + 7)).
    { set (x := B bs (pos + 6)) in *. set (y := B bs (pos + 7)) in *.
      symmetry. apply N.mod_unique with (q := x / 32); [|].
      - pose proof (N.mod_lt x 32 ltac:(lia)). lia.
      - pose proof (N.div_mod x 32 ltac:(lia)). lia. }
    now rewrite Y.
Qed.

Lemma res_rel_conv m s s' : s = s' -> res_rel m s -> res_rel m s'.
Proof. now intros ->. Qed.

(* the end of the three IP slicers: the payload starts ppos - pos octets into s; the network
   layer is recorded, the offset moved there, the transport decoded *)
Lemma ip_payload_rel bs c s pos lim n pl ppos lim' src p' :
  bytes_ok bs -> repr bs s pos lim -> repr bs (ipp_slice pl) ppos lim' -> pos <= ppos ->
  c_offset c = pos -> src_ok (ipp_src pl) src ->
  with_net (view (c_result c)) (view_net n) = p' ->
  res_rel (vres_of (let* d := ptr_diff (ipp_slice pl) s in
                    transport_dispatch (set_net c (c_offset c + d) (ipp_src pl) n) pl))
          (wire_transport bs p' (ipp_number pl) (ipp_fragmented pl) src ppos lim').
Proof.
  intros Hok Rs Rp Hp Hoff Hs <-. unfold ptr_diff.
  rewrite (repr_off _ _ _ _ Rp), (repr_off _ _ _ _ Rs), subN_ok by lia. cbn [bind].
  apply (transport_rel bs (set_net c (c_offset c + (ppos - pos)) (ipp_src pl) n) pl ppos lim' src Hok Rp).
  - cbn. lia.
  - exact Hs.
Qed.

Lemma v4_finish_rel bs c s header hp pos lim hl lim' :
  bytes_ok bs ->
  repr bs s pos lim ->
  repr bs header pos (pos + hl) -> repr bs hp (pos + hl) lim' ->
  20 <= hl -> c_offset c = pos ->
  res_rel
    (vres_of (let* ip := map_len_err (fun e => le_add_offset e (c_offset c))
                           (Ipv4Slice.finish header hp) in v4_cont c s ip))
    (wire_ipv4_tail bs (view (c_result c)) pos hl lim').
Proof.
  intros Hok Rs Rh Rp Hhl Hoff.
  pose proof Rp as (_ & Hp1 & Hp2).
  unfold Ipv4Slice.finish, wire_ipv4_tail.
  rewrite (ipv4_frag_eq bs header pos hl Hok Rh Hhl). cbn [bind].
  unfold Ipv4HeaderSlice.protocol. rd8 Rh 9.
  change IPN_AUTH with 51.
  destruct (B bs (pos + 9) =? 51) eqn:Eah.
  - (* authentication header *)
    rewrite (ah_eq bs hp (pos + hl) lim' Rp). unfold wire_ah.
    rewrite (repr_len _ _ _ _ Rh).
    replace (pos + hl - pos) with hl by lia.
    destruct (lim' - (pos + hl) <? 12) eqn:E12; cbn.
    { rewrite Hoff. len_rel_tac. }
    destruct (B bs (pos + hl + 1) =? 0) eqn:Ez; cbn; [reflexivity|].
    destruct (lim' - (pos + hl) <? (B bs (pos + hl + 1) + 2) * 4) eqn:El; cbn.
    { rewrite Hoff. len_rel_tac. }
    set (l := (B bs (pos + hl + 1) + 2) * 4) in *.
    get_prefix Rp l auth Ea Ra. rewrite Ea. cbn [bind].
    rewrite (repr_len _ _ _ _ Rp), (repr_len _ _ _ _ Ra).
    replace (pos + hl + l - (pos + hl)) with l by lia.
    assert (Hl' : l <= lim' - (pos + hl)) by lia.
    destruct (repr_rest bs hp (pos + hl) lim' l Rp Hl') as (pl & Epl & Rpl).
    rewrite subN_ok by lia. cbn [bind]. rewrite Epl. cbn [bind].
    unfold IpAuthHeaderSlice.next_header. rd8 Ra 0. rewrite N.add_0_r.
    cbn [map_len_err bind]. unfold v4_cont. cbn [v4_payload].
    apply (ip_payload_rel bs c s pos lim _ (mkIpPayload (B bs (pos + hl)) _ _ pl) (pos + hl + l) lim' _ _
             Hok Rs Rpl); [lia|exact Hoff|apply src_ok_refl|].
    cbn [view_net v4_header v4_auth v4_payload option_map]. unfold view_ipp.
    cbn [ipp_number ipp_fragmented ipp_src ipp_slice].
    rewrite (repr_win _ _ _ _ Rh), (repr_win _ _ _ _ Ra), (repr_win _ _ _ _ Rpl).
    replace (pos + hl - pos) with hl by lia.
    replace (pos + hl + l - (pos + hl)) with l by lia.
    reflexivity.
  - (* no extension header *)
    cbn [map_len_err bind]. unfold v4_cont. cbn [v4_payload].
    apply (ip_payload_rel bs c s pos lim _ (mkIpPayload (B bs (pos + 9)) _ _ hp) (pos + hl) lim' _ _
             Hok Rs Rp); [lia|exact Hoff|apply src_ok_refl|].
    cbn [view_net v4_header v4_auth v4_payload option_map]. unfold view_ipp.
    cbn [ipp_number ipp_fragmented ipp_src ipp_slice].
    rewrite (repr_win _ _ _ _ Rh), (repr_win _ _ _ _ Rp).
    replace (pos + hl - pos) with hl by lia.
    reflexivity.
Qed.

Ltac err_slice Hoff := cbn; rewrite ?Hoff; len_rel_tac.

(* behind the header: Ipv4Slice::from_slice and the IPv4 arm of IpSlice::from_slice have the
   same text up to what they wrap the result in (`fin`, `K`) *)
Lemma v4_body_rel {A} (fin : slice -> res A) (K : A -> res sliced_packet) bs c s header pos lim hl src :
  bytes_ok bs -> repr bs s pos lim -> repr bs header pos (pos + hl) ->
  20 <= hl -> hl <= lim - pos -> c_offset c = pos -> src_ok (c_src c) src ->
  (forall hp, (let* ip := map_len_err (fun e => le_add_offset e (c_offset c)) (fin hp) in K ip) =
              (let* ip := map_len_err (fun e => le_add_offset e (c_offset c)) (Ipv4Slice.finish header hp) in
               v4_cont c s ip)) ->
  res_rel
    (vres_of
       (let* ip := map_len_err (fun e => le_add_offset e (c_offset c))
          (let* tl := Ipv4HeaderSlice.total_len header in
           if tl <? hl then lerr hl tl LsIpv4HeaderTotalLen LyIpv4Packet
           else if lim - pos <? tl then lerr tl (lim - pos) LsSlice LyIpv4Packet
           else let* n := subN tl hl in let* hp := subU s hl n in fin hp) in
        K ip))
    (wire_ipv4_body bs (view (c_result c)) src pos lim hl).
Proof.
  intros Hok R Rhd Hhl Hl Hoff Hsrc HK. pose proof R as (_ & HR1 & HR2).
  unfold Ipv4HeaderSlice.total_len, wire_ipv4_body. rd16 Rhd 2.
  destruct (W bs (pos + 2) <? hl) eqn:Et; [err_slice Hoff|].
  destruct (lim - pos <? W bs (pos + 2)) eqn:Et2; [err_slice Hoff|].
  rewrite subN_ok by lia. cbn [bind].
  get_sub R hl (W bs (pos + 2) - hl) hp Ehp Rhp. rewrite Ehp. cbn [bind].
  replace (pos + hl + (W bs (pos + 2) - hl)) with (pos + W bs (pos + 2)) in Rhp by lia.
  rewrite HK. now apply (v4_finish_rel bs c s header hp pos lim hl (pos + W bs (pos + 2))).
Qed.

Lemma ipv4_rel bs c s pos lim src :
  bytes_ok bs -> repr bs s pos lim -> c_offset c = pos -> src_ok (c_src c) src ->
  res_rel (vres_of (slice_ipv4 c s)) (wire_ipv4 bs (view (c_result c)) src pos lim).
Proof.
  intros Hok R Hoff Hsrc. rewrite slice_ipv4_unfold.
  pose proof R as (_ & HR1 & HR2).
  unfold Ipv4Slice.from_slice, Ipv4HeaderSlice.from_slice, wire_ipv4, wire_ipv4_body.
  rewrite (repr_len _ _ _ _ R).
  destruct (lim - pos <? 20) eqn:E20; [err_slice Hoff|].
  rd8 R 0. rewrite N.add_0_r. rewrite shr4_div16, land15_mod.
  destruct (negb (B bs pos / 16 =? 4)) eqn:Ev; [reflexivity|].
  destruct (B bs pos mod 16 <? 5) eqn:Ei; [reflexivity|].
  set (hl := B bs pos mod 16 * 4) in *.
  destruct (lim - pos <? hl) eqn:Eh; [err_slice Hoff|].
  get_prefix R hl header Ehd Rhd. rewrite Ehd. cbn [bind].
  rewrite (repr_len _ _ _ _ Rhd). replace (pos + hl - pos) with hl by lia.
  apply (v4_body_rel (Ipv4Slice.finish header) (v4_cont c s) bs c s header pos lim hl src); auto;
    subst hl; lia.
Qed.

Definition chain_ok (bs : bytes) (src : len_source) (pos0 lim : N)
  (m : res (slice * N * bool)) (sp : chain_res) (pos : N) : Prop :=
  match sp with
  | ChOk e next fr =>
      exists rest', m = Ok (rest', next, fr) /\ repr bs rest' e lim /\ pos <= e
  | ChErr (VErr (ELen se)) =>
      exists me, m = Err (ELen me) /\ le_required me = le_required se /\
                 le_len me = le_len se /\ le_layer me = le_layer se /\
                 le_off me + pos0 = le_off se /\ le_src me = LsSlice /\ le_src se = src
  | ChErr (VErr (EContent ce)) => m = Err (EContent ce)
  | ChErr _ => False
  end.

Lemma raw_ext_eq bs s pos lim :
  repr bs s pos lim ->
  Ipv6RawExtHeaderSlice.from_slice s =
    (if lim - pos <? 8 then lerr 8 (lim - pos) LsSlice LyIpv6ExtHeader
     else if lim - pos <? (B bs (pos + 1) + 1) * 8
          then lerr ((B bs (pos + 1) + 1) * 8) (lim - pos) LsSlice LyIpv6ExtHeader
          else subU s 0 ((B bs (pos + 1) + 1) * 8)).
Proof.
  intros R. unfold Ipv6RawExtHeaderSlice.from_slice. rewrite (repr_len _ _ _ _ R).
  destruct (lim - pos <? 8) eqn:E; [reflexivity|].
  rewrite (repr_rd bs s pos lim 1 R) by lia. reflexivity.
Qed.

Lemma chain_ok_cut bs src pos0 lim req a ly off pos p :
  off + pos0 = pos ->
  chain_ok bs src pos0 lim (Err (ELen (le_add_offset (mkLenError req a LsSlice ly 0) off)))
    (ChErr (cut req a src ly pos)) p.
Proof. intros <-. eexists. split; [reflexivity|]. cbn. repeat split. Qed.

Lemma chain_ok_mono bs src pos0 lim m sp pos pos' :
  pos <= pos' -> chain_ok bs src pos0 lim m sp pos' -> chain_ok bs src pos0 lim m sp pos.
Proof.
  unfold chain_ok. destruct sp as [e nx fr|r]; [|auto].
  intros L (r' & E & RR & Le). exists r'. split; [exact E|]. split; [exact RR|lia].
Qed.

(* one header of l octets at the front of `rest`: the walk cuts it off, reads the next
   header number from its first octet and goes on behind it *)
Lemma walk_step bs rest pos lim l :
  repr bs rest pos lim -> 0 < l -> l <= lim - pos ->
  exists h r', subU rest 0 l = Ok h /\ repr bs h pos (pos + l) /\ repr bs r' (pos + l) lim /\
    forall A (K : slice -> N -> res A),
      (let* n := subN (lim - pos) (s_len h) in
       let* rest' := subU rest (s_len h) n in
       let* nh := rdU h 0 in K rest' nh) = K r' (B bs pos).
Proof.
  intros R L0 L.
  destruct (repr_prefix bs rest pos lim l R L) as (h & Eh & Rh).
  destruct (repr_rest bs rest pos lim l R L) as (r' & Er & Rr).
  exists h, r'. split; [exact Eh|]. split; [exact Rh|]. split; [exact Rr|]. intros A K.
  rewrite (repr_len _ _ _ _ Rh). replace (pos + l - pos) with l by lia.
  rewrite subN_ok by lia. cbn [bind]. rewrite Er. cbn [bind].
  rd8 Rh 0. now rewrite N.add_0_r.
Qed.

Lemma frag_fragments_eq bs h pos :
  repr bs h pos (pos + 8) ->
  Ipv6FragmentHeaderSlice.is_fragmenting_payload h =
    Ok (negb (B bs (pos + 3) mod 2 =? 0) || negb (W bs (pos + 2) / 8 =? 0)).
Proof.
  intros R. unfold Ipv6FragmentHeaderSlice.is_fragmenting_payload,
    Ipv6FragmentHeaderSlice.more_fragments, Ipv6FragmentHeaderSlice.fragment_offset.
  rd8 R 3. rd8 R 2. do 2 f_equal.
  - change 1 with (N.ones 1). now rewrite N.land_ones.
  - rewrite N.shiftr_div_pow2. unfold W. now rewrite <- N.add_assoc.
Qed.

Lemma chain_rel bs (Hok : bytes_ok bs) src pos0 lim fuel :
  forall rest pos nh frag,
    repr bs rest pos lim -> pos0 <= pos ->
    (N.to_nat (lim - pos) < fuel)%nat ->
    chain_ok bs src pos0 lim
      (Ipv6ExtensionsSlice.walk fuel (lim - pos0) rest nh frag)
      (wire_chain bs fuel src pos lim nh frag) pos.
Proof.
  induction fuel as [|f IH]; intros rest pos nh frag R Hp Hf; [lia|].
  pose proof R as (_ & HR1 & HR2).
  cbn [Ipv6ExtensionsSlice.walk wire_chain].
  change IPN_HOP_BY_HOP with 0. change IPN_DEST_OPTIONS with 60. change IPN_ROUTE with 43.
  change IPN_FRAG with 44. change IPN_AUTH with 51.
  destruct (nh =? 0) eqn:E0; [reflexivity|].
  rewrite (repr_len _ _ _ _ R), subN_ok by lia. cbn [bind].
  destruct ((nh =? 60) || (nh =? 43)) eqn:Eraw.
  { rewrite (raw_ext_eq bs rest pos lim R).
    destruct (lim - pos <? 8) eqn:E8; [apply chain_ok_cut; lia|].
    set (l := (B bs (pos + 1) + 1) * 8). assert (L8 : 8 <= l) by (subst l; lia).
    destruct (lim - pos <? l) eqn:El; [apply chain_ok_cut; lia|].
    destruct (walk_step bs rest pos lim l R) as (h & r' & Eh & Rh & Rr & Ek); [lia|lia|].
    rewrite Eh. cbn [map_len_err bind]. unfold Ipv6RawExtHeaderSlice.next_header. rewrite Ek.
    apply (chain_ok_mono _ _ _ _ _ _ pos (pos + l)); [lia|]. apply IH; [exact Rr|lia|lia]. }
  destruct (nh =? 44) eqn:Efrag.
  { unfold Ipv6FragmentHeaderSlice.from_slice. rewrite (repr_len _ _ _ _ R).
    destruct (lim - pos <? 8) eqn:E8; [apply chain_ok_cut; lia|].
    destruct (walk_step bs rest pos lim 8 R) as (h & r' & Eh & Rh & Rr & Ek); [lia|lia|].
    rewrite Eh. cbn [map_len_err bind]. unfold Ipv6FragmentHeaderSlice.next_header. rewrite Ek.
    rewrite (frag_fragments_eq bs h pos Rh). cbn [bind].
    apply (chain_ok_mono _ _ _ _ _ _ pos (pos + 8)); [lia|]. apply IH; [exact Rr|lia|lia]. }
  destruct (nh =? 51) eqn:Eauth.
  { rewrite (ah_eq bs rest pos lim R). unfold wire_ah.
    destruct (lim - pos <? 12) eqn:E12; [apply chain_ok_cut; lia|].
    destruct (B bs (pos + 1) =? 0) eqn:Ez; [reflexivity|].
    set (l := (B bs (pos + 1) + 2) * 4). assert (L8 : 8 <= l) by (subst l; lia).
    destruct (lim - pos <? l) eqn:El; [apply chain_ok_cut; lia|].
    destruct (walk_step bs rest pos lim l R) as (h & r' & Eh & Rh & Rr & Ek); [lia|lia|].
    rewrite Eh. cbn [bind]. unfold IpAuthHeaderSlice.next_header. rewrite Ek.
    apply (chain_ok_mono _ _ _ _ _ _ pos (pos + l)); [lia|]. apply IH; [exact Rr|lia|lia]. }
  exists rest. split; [reflexivity|]. split; [exact R|lia].
Qed.

Lemma repr_drop bs s pos lim l :
  repr bs s pos lim -> l <= lim - pos ->
  repr bs (fst s + l, drop l (snd s)) (pos + l) lim.
Proof.
  intros R Hl. destruct (repr_rest bs s pos lim l R Hl) as (s' & E & R').
  unfold subU in E. rewrite (repr_len _ _ _ _ R) in E.
  destruct (l + (lim - pos - l) <=? lim - pos) eqn:EE; [|lia].
  injection E as E. rewrite <- E in R'.
  replace (take (lim - pos - l) (drop l (snd s))) with (drop l (snd s)) in R'; [exact R'|].
  unfold take, drop. symmetry. apply firstn_all2.
  rewrite skipn_length. rewrite (repr_length _ _ _ _ R). lia.
Qed.

Definition exts_ok (bs : bytes) (src : len_source) (pos lim nh : N)
  (m : res (ipv6_exts_slice * N * slice)) (sp : chain_res) : Prop :=
  match sp with
  | ChOk e next fr =>
      exists x rest, m = Ok (x, next, rest) /\ repr bs rest e lim /\ pos <= e /\
                     repr bs (x6_slice x) pos e /\ x6_fragmented x = fr /\
                     x6_first x = (if e =? pos then None else Some nh)
  | ChErr (VErr (ELen se)) =>
      exists me, m = Err (ELen me) /\ le_required me = le_required se /\
                 le_len me = le_len se /\ le_layer me = le_layer se /\
                 le_off me + pos = le_off se /\ le_src me = LsSlice /\ le_src se = src
  | ChErr (VErr (EContent ce)) => m = Err (EContent ce)
  | ChErr _ => False
  end.

Lemma exts_rel bs (Hok : bytes_ok bs) src s pos lim nh :
  repr bs s pos lim ->
  exts_ok bs src pos lim nh (Ipv6ExtensionsSlice.from_slice nh s)
    (wire_exts bs (S (N.to_nat (lim - pos))) src pos lim nh).
Proof.
  intros R. pose proof R as (_ & HR1 & HR2).
  unfold Ipv6ExtensionsSlice.from_slice, wire_exts.
  change IPN_HOP_BY_HOP with 0. rewrite (N.eqb_sym 0 nh).
  rewrite (repr_length _ _ _ _ R), (repr_len _ _ _ _ R).
  (* what is made of the result of the walk, wherever the walk starts *)
  assert (End : forall rest0 nh0 pos1,
             repr bs rest0 pos1 lim -> pos <= pos1 ->
             exts_ok bs src pos lim nh
               (let* w := Ipv6ExtensionsSlice.walk (S (N.to_nat (lim - pos))) (lim - pos) rest0 nh0 false in
                let '(rest, next_header, fragmented) := w in
                let* used := subN (lim - pos) (s_len rest) in
                let* sl := (if used <=? lim - pos then Ok (fst s, take used (snd s)) else Bug SITE_INDEX) in
                Ok (mkIpv6Exts (if negb (s_len rest =? lim - pos) then Some nh else None) fragmented sl,
                    next_header, rest))
               (wire_chain bs (S (N.to_nat (lim - pos))) src pos1 lim nh0 false)).
  { intros rest0 nh0 pos1 R0 Hp1.
    assert (Walk : chain_ok bs src pos lim
               (Ipv6ExtensionsSlice.walk (S (N.to_nat (lim - pos))) (lim - pos) rest0 nh0 false)
               (wire_chain bs (S (N.to_nat (lim - pos))) src pos1 lim nh0 false) pos1).
    { apply chain_rel; auto. destruct R0 as (_ & A1 & A2). lia. }
    unfold chain_ok, exts_ok in *.
    destruct (wire_chain bs (S (N.to_nat (lim - pos))) src pos1 lim nh0 false) as [e nx fr|[p|[se|ce]|b]];
      try exact Walk.
    - destruct Walk as (rest' & -> & RR & Le). cbn [bind].
      pose proof RR as (_ & Q1 & Q2).
      rewrite (repr_len _ _ _ _ RR). rewrite subN_ok by lia. cbn [bind].
      destruct (lim - pos - (lim - e) <=? lim - pos) eqn:EE; [|lia]. cbn [bind].
      eexists _, rest'. split; [reflexivity|]. cbn [x6_slice x6_fragmented x6_first].
      split; [exact RR|]. split; [lia|]. split.
      + replace (lim - pos - (lim - e)) with (e - pos) by lia.
        pose proof (repr_sub bs s pos lim 0 (e - pos) R ltac:(lia)) as RS.
        rewrite (repr_off _ _ _ _ R : fst s = pos).
        rewrite N.add_0_r in RS. replace (pos + (e - pos)) with e in RS by lia.
        unfold drop in RS. cbn [N.to_nat skipn] in RS. exact RS.
      + split; [reflexivity|].
        destruct (e =? pos) eqn:Ee.
        * assert (e = pos) by lia. subst e. rewrite N.eqb_refl. reflexivity.
        * assert ((lim - e =? lim - pos) = false) by lia. rewrite H. reflexivity.
    - destruct Walk as (me & -> & W). cbn [bind]. exists me. split; [reflexivity|exact W].
    - rewrite Walk. reflexivity. }
  destruct (nh =? 0) eqn:E0.
  - (* hop-by-hop options first *)
    rewrite (raw_ext_eq bs s pos lim R).
    destruct (lim - pos <? 8) eqn:E8.
    { cbn. eexists. split; [reflexivity|]. cbn. repeat split; lia. }
    destruct (lim - pos <? (B bs (pos + 1) + 1) * 8) eqn:El.
    { cbn. eexists. split; [reflexivity|]. cbn. repeat split; lia. }
    set (l := (B bs (pos + 1) + 1) * 8) in *.
    get_prefix R l h Eh Rh. rewrite Eh. cbn [bind].
    rewrite (repr_len _ _ _ _ Rh). replace (pos + l - pos) with l by lia.
    destruct (l <=? lim - pos) eqn:Ell; [|lia]. cbn [bind].
    unfold Ipv6RawExtHeaderSlice.next_header. rd8 Rh 0. rewrite N.add_0_r.
    assert (Hl : l <= lim - pos) by lia.
    pose proof (repr_drop bs s pos lim l R Hl) as Rd.
    apply (End _ (B bs pos) (pos + l) Rd). lia.
  - cbn [bind]. apply (End s nh pos R). lia.
Qed.

Definition v6_cont (c : cursor) (s : slice) (ip : ipv6_slice) : res sliced_packet :=
  let payload := v6_payload ip in
  let* d := ptr_diff (ipp_slice payload) s in
  transport_dispatch (set_net c (c_offset c + d) (ipp_src payload) (NtIpv6 ip)) payload.

Lemma slice_ipv6_unfold c s :
  slice_ipv6 c s =
  (let* ip := map_len_err (fun e => le_add_offset e (c_offset c)) (Ipv6Slice.from_slice s) in
   v6_cont c s ip).
Proof. reflexivity. Qed.

(* the chain + transport part, for a header payload [pos+40, lim') *)
Lemma v6_tail_rel bs c s header hp pos lim lim' esrc psrc :
  bytes_ok bs -> repr bs s pos lim ->
  repr bs header pos (pos + 40) -> repr bs hp (pos + 40) lim' ->
  c_offset c = pos -> src_ok psrc esrc ->
  res_rel
    (vres_of
       (let* ip := map_len_err (fun e => le_add_offset e (c_offset c))
          (let* nh := Ipv6HeaderSlice.next_header header in
           let* x :=
             match Ipv6ExtensionsSlice.from_slice nh hp with
             | Err (ELen e) => Err (ELen (le_add_offset (le_set_src e psrc) 40))
             | r => r
             end in
           let '(exts, payload_ip_number, payload) := x in
           Ok (mkIpv6Slice header exts
                 (mkIpPayload payload_ip_number (x6_fragmented exts) psrc payload))) in
        v6_cont c s ip))
    (wire_ipv6_tail bs (view (c_result c)) esrc psrc pos lim').
Proof.
  intros Hok Rs Rh Rp Hoff Hps. pose proof Rp as (_ & P1 & P2).
  unfold wire_ipv6_tail, Ipv6HeaderSlice.next_header. rd8 Rh 6.
  pose proof (exts_rel bs Hok esrc hp (pos + 40) lim' (B bs (pos + 6)) Rp) as X.
  unfold exts_ok in X.
  destruct (wire_exts bs (S (N.to_nat (lim' - (pos + 40)))) esrc (pos + 40) lim' (B bs (pos + 6)))
    as [e nx fr|[p|[se|ce]|b]]; try contradiction.
  - destruct X as (x & rest & -> & Rr & Le & Rx & Efr & Efirst). cbn [bind map_len_err].
    unfold v6_cont. cbn [v6_payload]. rewrite <- Efr.
    apply (ip_payload_rel bs c s pos lim _ (mkIpPayload nx _ psrc rest) e lim' esrc _ Hok Rs Rr);
      [lia|exact Hoff|exact Hps|].
    cbn [view_net v6_header v6_exts v6_payload]. unfold view_ipp.
    cbn [ipp_number ipp_fragmented ipp_src ipp_slice].
    rewrite (repr_win _ _ _ _ Rh), (repr_win _ _ _ _ Rx), (repr_win _ _ _ _ Rr).
    rewrite Efirst. replace (pos + 40 - pos) with 40 by lia. reflexivity.
  - destruct X as (me & -> & A1 & A2 & A3 & A4 & A5 & A6). cbn.
    unfold len_rel, le_add_offset, le_set_src. cbn. rewrite Hoff.
    repeat split; try lia; auto.
    destruct Hps as [->| ->]; rewrite ?A6; auto.
  - rewrite X. reflexivity.
Qed.

Lemma v6_finish_rel bs c s header pos lim src :
  bytes_ok bs -> repr bs s pos lim -> repr bs header pos (pos + 40) -> 40 <= lim - pos ->
  c_offset c = pos -> src_ok (c_src c) src ->
  res_rel
    (vres_of (let* ip := map_len_err (fun e => le_add_offset e (c_offset c))
                           (Ipv6Slice.finish s header) in v6_cont c s ip))
    (wire_ipv6_body bs (view (c_result c)) src pos lim).
Proof.
  intros Hok Rs Rh H40 Hoff Hsrc. pose proof Rs as (_ & S1 & S2).
  unfold Ipv6Slice.finish, wire_ipv6_body, Ipv6HeaderSlice.payload_length.
  rd16 Rh 4. rewrite (repr_len _ _ _ _ Rs).
  rewrite (N.eqb_sym 0 (W bs (pos + 4))).
  destruct ((W bs (pos + 4) =? 0) && (40 <? lim - pos)) eqn:Ez.
  - rewrite subN_ok by lia. cbn [bind].
    assert (H40' : 40 <= lim - pos) by lia.
    destruct (repr_rest bs s pos lim 40 Rs H40') as (hp & Ehp & Rhp). rewrite Ehp. cbn [bind].
    apply (v6_tail_rel bs c s header hp pos lim lim src LsSlice); auto. apply src_ok_slice.
  - destruct (lim - pos <? 40 + W bs (pos + 4)) eqn:El; [err_slice Hoff|].
    get_sub Rs 40 (W bs (pos + 4)) hp Ehp Rhp. rewrite Ehp. cbn [bind].
    apply (v6_tail_rel bs c s header hp pos lim (pos + 40 + W bs (pos + 4))
             LsIpv6HeaderPayloadLen LsIpv6HeaderPayloadLen); auto. apply src_ok_refl.
Qed.

Lemma ipv6_rel bs c s pos lim src :
  bytes_ok bs -> repr bs s pos lim -> c_offset c = pos -> src_ok (c_src c) src ->
  res_rel (vres_of (slice_ipv6 c s)) (wire_ipv6 bs (view (c_result c)) src pos lim).
Proof.
  intros Hok R Hoff Hsrc. rewrite slice_ipv6_unfold.
  unfold Ipv6Slice.from_slice, Ipv6HeaderSlice.from_slice, wire_ipv6.
  rewrite (repr_len _ _ _ _ R).
  destruct (lim - pos <? 40) eqn:E40; [err_slice Hoff|].
  rd8 R 0. rewrite N.add_0_r, shr4_div16.
  destruct (negb (B bs pos / 16 =? 6)) eqn:Ev; [reflexivity|].
  get_prefix R 40 header Eh Rh. rewrite Eh. cbn [bind].
  apply (v6_finish_rel bs c s header pos lim src); auto. lia.
Qed.

Lemma ip_rel bs c s pos lim src :
  bytes_ok bs -> repr bs s pos lim -> c_offset c = pos -> src_ok (c_src c) src ->
  res_rel (vres_of (slice_ip c s)) (wire_ip bs (view (c_result c)) src pos lim).
Proof.
  intros Hok R Hoff Hsrc. pose proof R as (_ & HR1 & HR2).
  unfold slice_ip, IpSlice.from_slice, wire_ip, wire_ipv4_body.
  rewrite (repr_len _ _ _ _ R).
  destruct (lim - pos =? 0) eqn:E0; [err_slice Hoff|].
  rd8 R 0. rewrite N.add_0_r, shr4_div16, land15_mod.
  destruct (B bs pos / 16 =? 4) eqn:E4.
  - destruct (B bs pos mod 16 <? 5) eqn:Ei; [reflexivity|].
    set (hl := B bs pos mod 16 * 4) in *.
    destruct (lim - pos <? hl) eqn:Eh; [err_slice Hoff|].
    get_prefix R hl header Ehd Rhd. rewrite Ehd. cbn [bind].
    apply (v4_body_rel (fun hp => let* v := Ipv4Slice.finish header hp in Ok (IpV4 v)) _
             bs c s header pos lim hl src); auto; try (subst hl; lia).
    intros hp. now destruct (Ipv4Slice.finish header hp) as [v|[e|ce]|b].
  - destruct (B bs pos / 16 =? 6) eqn:E6; [|reflexivity].
    destruct (lim - pos <? 40) eqn:E40; [err_slice Hoff|].
    get_prefix R 40 header Eh Rh. rewrite Eh. cbn [bind].
    pose proof (v6_finish_rel bs c s header pos lim src Hok R Rh ltac:(lia) Hoff Hsrc) as F.
    now destruct (Ipv6Slice.finish s header) as [v|[e|ce]|b].
Qed.

Lemma arp_rel bs c s pos lim src :
  bytes_ok bs -> repr bs s pos lim -> c_offset c = pos -> src_ok (c_src c) src ->
  res_rel (vres_of (slice_arp c s)) (wire_arp bs (view (c_result c)) src pos lim).
Proof.
  intros Hok R Hoff Hsrc. unfold slice_arp, ArpPacketSlice.from_slice, wire_arp.
  rewrite (repr_len _ _ _ _ R).
  destruct (lim - pos <? 8) eqn:E8; [err_slice Hoff|].
  rd8 R 4. rd8 R 5.
  set (l := 8 + B bs (pos + 4) * 2 + B bs (pos + 5) * 2) in *.
  destruct (lim - pos <? l) eqn:El.
  - cbn. rewrite Hoff. unfold len_rel, F7. cbn. repeat split; try lia. right. right. left. auto.
  - get_prefix R l a Ea Ra. rewrite Ea. cbn [map_len_err bind vres_of].
    rewrite view_set_net. cbn [view_net]. rewrite (repr_win _ _ _ _ Ra).
    replace (pos + l - pos) with l by lia. reflexivity.
Qed.

Lemma bit128 b : b < 256 -> Macsec.bit b 128 = (128 <=? b).
Proof.
  intros H. apply Bool.eqb_prop.
  apply (byte_sweep (fun b => Bool.eqb (Macsec.bit b 128) (128 <=? b)) eq_refl _ H).
Qed.
Lemma subU_eq s k n :
  k + n <= s_len s -> subU s k n = Ok (fst s + k, take n (drop k (snd s))).
Proof. intros H. unfold subU. destruct (k + n <=? s_len s) eqn:E; [reflexivity|lia]. Qed.

Lemma drop0 {A} (l : list A) : drop 0 l = l.
Proof. reflexivity. Qed.

Lemma macsec_header_eq bs s pos lim :
  bytes_ok bs -> repr bs s pos lim ->
  Macsec.header_from_slice s =
    (if lim - pos <? 6 then lerr 6 (lim - pos) LsSlice LyMacsecHeader
     else if 128 <=? B bs pos then Err (EContent CeMacsecVersion)
     else if ((B bs pos / 4) mod 4 =? 0) && (B bs (pos + 1) mod 64 =? 1)
          then Err (EContent CeMacsecUnmodifiedShortLen)
     else if lim - pos <? macsec_hl (B bs pos)
          then lerr (macsec_hl (B bs pos)) (lim - pos) LsSlice LyMacsecHeader
     else Ok (pos, take (macsec_hl (B bs pos)) (snd s))).
Proof.
  intros Hok R. pose proof (B_lt bs pos Hok) as Ht.
  unfold Macsec.header_from_slice. rewrite (repr_len _ _ _ _ R).
  destruct (lim - pos <? 6) eqn:E6; [reflexivity|].
  rd8 R 0. rewrite N.add_0_r, (bit128 _ Ht).
  destruct (128 <=? B bs pos); [reflexivity|].
  rewrite (land12 _ Ht), (bit32 _ Ht). fold (macsec_hl (B bs pos)).
  assert (E1 : (if (B bs pos / 4) mod 4 =? 0
                then let* b1 := rdU s 1 in
                     if N.land b1 63 =? 1 then Err (EContent CeMacsecUnmodifiedShortLen) else Ok tt
                else Ok tt) =
               (if ((B bs pos / 4) mod 4 =? 0) && (B bs (pos + 1) mod 64 =? 1)
                then Err (EContent CeMacsecUnmodifiedShortLen) else Ok tt)).
  { destruct ((B bs pos / 4) mod 4 =? 0); [|reflexivity]. rd8 R 1. now rewrite land63_mod. }
  rewrite E1.
  destruct (((B bs pos / 4) mod 4 =? 0) && (B bs (pos + 1) mod 64 =? 1)); [reflexivity|]. cbn [bind].
  destruct (lim - pos <? macsec_hl (B bs pos)) eqn:Eh; [reflexivity|].
  rewrite subU_eq by (rewrite (repr_len _ _ _ _ R); lia).
  now rewrite (repr_off _ _ _ _ R : fst s = pos), N.add_0_r.
Qed.

(* the accessors of a SecTAG slice; its length is a function of its first octet *)
Section MacsecHeader.
  Variables (bs : bytes) (h : slice) (pos : N).
  Hypothesis Hok : bytes_ok bs.
  Hypothesis R : repr bs h pos (pos + macsec_hl (B bs pos)).
  Local Notation tci := (B bs pos).
  Local Notation unmod := ((tci / 4) mod 4 =? 0).
  Local Notation sl := (B bs (pos + 1) mod 64).

  Lemma macsec_header_len_eq : Macsec.header_len h = Ok (macsec_hl tci).
  Proof.
    pose proof (WireSpecFacts.macsec_hl_bounds tci). pose proof (B_lt bs pos Hok) as Ht.
    unfold Macsec.header_len, Macsec.sci_present, Macsec.is_unmodified, Macsec.tci_an_raw.
    rd8 R 0. rewrite N.add_0_r, (bit32 _ Ht), (land12 _ Ht). unfold macsec_hl. f_equal. lia.
  Qed.

  Lemma macsec_short_len_eq : Macsec.short_len h = Ok sl.
  Proof.
    pose proof (WireSpecFacts.macsec_hl_bounds tci). unfold Macsec.short_len. rd8 R 1. now rewrite land63_mod.
  Qed.

  Lemma macsec_expected_payload_len_eq :
    Macsec.expected_payload_len h =
      Ok (if 0 <? sl then (if negb unmod then Some sl else if sl <? 2 then None else Some (sl - 2))
          else None).
  Proof.
    pose proof (WireSpecFacts.macsec_hl_bounds tci). pose proof (B_lt bs pos Hok) as Ht.
    unfold Macsec.expected_payload_len, Macsec.tci_an_raw. rewrite macsec_short_len_eq. cbn [bind].
    rd8 R 0. rewrite N.add_0_r, (land12 _ Ht).
    destruct (0 <? sl), (negb unmod); try reflexivity. now destruct (sl <? 2).
  Qed.

  (* an unmodified frame carries its ether type in the last two octets of the SecTAG *)
  Lemma macsec_next_ether_type_eq :
    Macsec.next_ether_type h = Ok (if unmod then Some (W bs (pos + macsec_hl tci - 2)) else None).
  Proof.
    pose proof (B_lt bs pos Hok) as Ht. revert R.
    unfold Macsec.next_ether_type, Macsec.tci_an_raw, macsec_hl. rewrite <- (bit32 _ Ht). intros R.
    rd8 R 0. rewrite N.add_0_r, (land12 _ Ht).
    destruct unmod; [|reflexivity]. cbn [negb].
    destruct (Macsec.bit tci 32).
    - rd16 R 14. now replace (pos + (6 + 2 + 8) - 2) with (pos + 14) by lia.
    - rd16 R 6. now replace (pos + (6 + 2 + 0) - 2) with (pos + 6) by lia.
  Qed.
End MacsecHeader.

Section MacsecSpec.
  Variables (bs : bytes) (s : slice) (pos lim : N).
  Hypothesis Hok : bytes_ok bs.
  Hypothesis R : repr bs s pos lim.

  Let tci := B bs pos.
  Let sl := B bs (pos + 1) mod 64.
  Let unmod := (tci / 4) mod 4 =? 0.
  Let sc := negb ((tci / 32) mod 2 =? 0).
  Let hl := 6 + (if unmod then 2 else 0) + (if sc then 8 else 0).
  Let body := if unmod then sl - 2 else sl.
  Let a := lim - pos.
  Let plen := if 0 <? sl then body else a - hl.
  Let psrc := if 0 <? sl then LsMacsecShortLength else LsSlice.

  Lemma macsec_from_slice_eq :
    Macsec.from_slice s =
      (if a <? 6 then lerr 6 a LsSlice LyMacsecHeader
       else if 128 <=? tci then Err (EContent CeMacsecVersion)
       else if unmod && (sl =? 1) then Err (EContent CeMacsecUnmodifiedShortLen)
       else if a <? hl then lerr hl a LsSlice LyMacsecHeader
       else if (0 <? sl) && (a <? hl + body) then
              lerr (hl + body) a LsMacsecShortLength LyMacsecPacket
       else
         let header := (pos, take hl (snd s)) in
         let payload := (pos + hl, take plen (drop hl (snd s))) in
         Ok (mkMacsecSlice header
               (if unmod then MpUnmodified (mkEtherPayload (W bs (pos + hl - 2)) psrc payload)
                else MpModified payload))).
  Proof.
    pose proof R as (_ & HR1 & HR2).
    subst psrc plen body hl a sc unmod sl tci. fold (macsec_hl (B bs pos)).
    unfold Macsec.from_slice. rewrite (macsec_header_eq bs s pos lim Hok R).
    destruct (lim - pos <? 6); [reflexivity|].
    destruct (128 <=? B bs pos); [reflexivity|].
    destruct (((B bs pos / 4) mod 4 =? 0) && (B bs (pos + 1) mod 64 =? 1)) eqn:Eu; [reflexivity|].
    set (hl := macsec_hl (B bs pos)) in *. pose proof (WireSpecFacts.macsec_hl_bounds (B bs pos)) as Hhl. fold hl in Hhl.
    destruct (lim - pos <? hl) eqn:Eh; [reflexivity|]. cbn [bind].
    pose proof (repr_sub bs s pos lim 0 hl R ltac:(lia)) as Rh. rewrite N.add_0_r, drop0 in Rh.
    rewrite (macsec_expected_payload_len_eq bs _ pos Hok Rh), (macsec_next_ether_type_eq bs _ pos Hok Rh).
    fold hl. cbn [bind]. rewrite (repr_len _ _ _ _ R), (repr_len _ _ _ _ Rh).
    replace (pos + hl - pos) with hl by lia.
    set (sl := B bs (pos + 1) mod 64) in *.
    destruct (0 <? sl) eqn:Esl; cbn [andb].
    - destruct ((B bs pos / 4) mod 4 =? 0); cbn [negb andb] in *.
      + assert ((sl <? 2) = false) as -> by lia.
        destruct (lim - pos <? hl + (sl - 2)) eqn:Eb; [reflexivity|].
        rewrite subU_eq, (repr_off _ _ _ _ R : fst s = pos) by (rewrite (repr_len _ _ _ _ R); lia).
        reflexivity.
      + destruct (lim - pos <? hl + sl) eqn:Eb; [reflexivity|].
        rewrite subU_eq, (repr_off _ _ _ _ R : fst s = pos) by (rewrite (repr_len _ _ _ _ R); lia).
        reflexivity.
    - rewrite subN_ok by lia. cbn [bind].
      rewrite subU_eq, (repr_off _ _ _ _ R : fst s = pos) by (rewrite (repr_len _ _ _ _ R); lia).
      now destruct ((B bs pos / 4) mod 4 =? 0).
  Qed.
End MacsecSpec.

Lemma view_push_ext c o sr x c' :
  push_ext c o sr x = Ok c' ->
  view (c_result c') = with_ext (view (c_result c)) (view_ext x) /\
  c_offset c' = o /\ c_src c' = sr /\
  len (sp_exts (c_result c')) = len (sp_exts (c_result c)) + 1.
Proof.
  unfold push_ext. destruct (len (sp_exts (c_result c)) <? LINK_EXTS_CAP); [|discriminate].
  intros E. injection E as <-. cbn. unfold view, with_ext. cbn.
  rewrite map_app. cbn. repeat split. rewrite len_app. reflexivity.
Qed.

Lemma push_ext_ok c o sr x :
  len (sp_exts (c_result c)) < 3 ->
  exists c', push_ext c o sr x = Ok c' /\
    view (c_result c') = with_ext (view (c_result c)) (view_ext x) /\
    c_offset c' = o /\ c_src c' = sr /\
    len (sp_exts (c_result c')) = len (sp_exts (c_result c)) + 1.
Proof.
  intros H. assert (E : exists c', push_ext c o sr x = Ok c').
  { unfold push_ext, LINK_EXTS_CAP.
    destruct (len (sp_exts (c_result c)) <? 3) eqn:E; [eexists; reflexivity|lia]. }
  destruct E as (c' & E). exists c'. split; [exact E|exact (view_push_ext _ _ _ _ _ E)].
Qed.

Lemma net_rel bs c ep pos lim src :
  bytes_ok bs -> repr bs (ep_slice ep) pos lim -> c_offset c = pos -> src_ok (c_src c) src ->
  is_vlan_type (ep_ether_type ep) = false -> (ep_ether_type ep =? ET_MACSEC) = false ->
  res_rel
    (vres_of (if ep_ether_type ep =? ET_ARP then slice_arp c (ep_slice ep)
              else if ep_ether_type ep =? ET_IPV4 then slice_ipv4 c (ep_slice ep)
              else if ep_ether_type ep =? ET_IPV6 then slice_ipv6 c (ep_slice ep)
              else Ok (c_result c)))
    (wire_net bs (view (c_result c)) (ep_ether_type ep) src pos lim).
Proof.
  intros Hok R Hoff Hsrc _ _. unfold wire_net.
  change ET_ARP with 2054. change ET_IPV4 with 2048. change ET_IPV6 with 34525.
  destruct (ep_ether_type ep =? 2054); [now apply arp_rel|].
  destruct (ep_ether_type ep =? 2048); [now apply ipv4_rel|].
  destruct (ep_ether_type ep =? 34525); [now apply ipv6_rel|].
  reflexivity.
Qed.

(* cap = link extensions still allowed; cap + 1 iterations suffice, so the fuel 5 that
   Parse/Cursor.v passes for cap = 3 is never used up *)
Lemma ether_rel bs (Hok : bytes_ok bs) cap :
  forall fuel c ep pos lim src,
    (cap < fuel)%nat ->
    N.of_nat cap + len (sp_exts (c_result c)) = 3 ->
    repr bs (ep_slice ep) pos lim -> c_offset c = pos -> src_ok (c_src c) src ->
    res_rel (vres_of (slice_ether_type_loop fuel c ep))
            (wire_ether bs cap (view (c_result c)) (ep_ether_type ep) src pos lim).
Proof.
  induction cap as [|cap IH]; intros fuel c ep pos lim src Hf Hcap R Hoff Hsrc;
    (destruct fuel as [|f]; [lia|]); pose proof R as (_ & HR1 & HR2);
    cbn [slice_ether_type_loop wire_ether];
    change (is_vlan (ep_ether_type ep)) with (is_vlan_type (ep_ether_type ep));
    change 35045 with ET_MACSEC; unfold LINK_EXTS_CAP.
  - (* link_exts is full *)
    destruct (is_vlan_type (ep_ether_type ep)) eqn:Ev.
    { destruct (3 <=? len (sp_exts (c_result c))) eqn:E3; [reflexivity|lia]. }
    destruct (ep_ether_type ep =? ET_MACSEC) eqn:Em.
    { destruct (3 <=? len (sp_exts (c_result c))) eqn:E3; [reflexivity|lia]. }
    now apply net_rel.
  - destruct (is_vlan_type (ep_ether_type ep)) eqn:Ev.
    { (* VLAN tag *)
      destruct (3 <=? len (sp_exts (c_result c))) eqn:E3; [lia|].
      unfold SingleVlanSlice.from_slice. rewrite (repr_len _ _ _ _ R).
      destruct (lim - pos <? 4) eqn:E4; [err_slice Hoff|].
      cbn [map_len_err bind].
      unfold SingleVlanSlice.payload, SingleVlanSlice.ether_type, SingleVlanSlice.payload_slice.
      rd16 R 2. rewrite (repr_len _ _ _ _ R). rewrite subN_ok by lia. cbn [bind].
      assert (H4 : 4 <= lim - pos) by lia.
      destruct (repr_rest bs (ep_slice ep) pos lim 4 R H4) as (pl & Epl & Rpl).
      rewrite Epl. cbn [bind].
      destruct (push_ext_ok c (c_offset c + SingleVlanSlice.header_len) (c_src c) (LeVlan (ep_slice ep)))
        as (c' & Ec' & V1 & V2 & V3 & V4); [lia|].
      rewrite Ec'. cbn [bind].
      eapply res_rel_conv; [|apply (IH f c' _ (pos + 4) lim src)]; cbn [ep_ether_type ep_slice]; auto.
      + rewrite V1. cbn [view_ext]. rewrite (repr_win _ _ _ _ R). reflexivity.
      + lia.
      + lia.
      + rewrite V2, Hoff. reflexivity.
      + rewrite V3. exact Hsrc. }
    destruct (ep_ether_type ep =? ET_MACSEC) eqn:Em; [|now apply net_rel].
    (* MACsec *)
    destruct (3 <=? len (sp_exts (c_result c))) eqn:E3; [lia|].
    rewrite (macsec_from_slice_eq bs (ep_slice ep) pos lim Hok R).
    destruct (lim - pos <? 6) eqn:E6; [err_slice Hoff|].
    destruct (128 <=? B bs pos) eqn:Ever; [reflexivity|].
    fold (macsec_hl (B bs pos)).
    set (sl := B bs (pos + 1) mod 64) in *.
    set (unmod := (B bs pos / 4) mod 4 =? 0) in *.
    destruct (unmod && (sl =? 1)) eqn:Eu; [reflexivity|].
    set (hl := macsec_hl (B bs pos)) in *.
    pose proof (WireSpecFacts.macsec_hl_bounds (B bs pos)) as Hhl. fold hl in Hhl.
    destruct (lim - pos <? hl) eqn:Eh; [err_slice Hoff|].
    set (body := if unmod then sl - 2 else sl) in *.
    destruct ((0 <? sl) && (lim - pos <? hl + body)) eqn:Eb.
    { cbn. rewrite Hoff. unfold len_rel, F7. cbn. repeat split; try lia. right. right. right. auto. }
    cbn zeta.
    set (plen := if 0 <? sl then body else lim - pos - hl) in *.
    set (psrc := if 0 <? sl then LsMacsecShortLength else LsSlice) in *.
    cbn [map_len_err bind ms_header ms_payload].
    pose proof (repr_sub bs (ep_slice ep) pos lim 0 hl R ltac:(lia)) as Rh.
    rewrite N.add_0_r, drop0 in Rh.
    rewrite (macsec_header_len_eq bs _ pos Hok Rh), (macsec_short_len_eq bs _ pos Rh).
    fold hl sl. cbn [bind].
    set (header := (pos, take hl (snd (ep_slice ep)))) in *.
    assert (Elim : pos + hl + plen = (if 0 <? sl then pos + hl + body else lim)).
    { subst plen. destruct (0 <? sl); cbn [andb] in Eb; lia. }
    assert (Hplen : hl + plen <= lim - pos) by (destruct (0 <? sl); cbn [andb] in Eb; lia).
    pose proof (repr_sub bs (ep_slice ep) pos lim hl plen R Hplen) as Rp.
    set (payload := (pos + hl, take plen (drop hl (snd (ep_slice ep))))) in *.
    set (src1 := if 0 <? sl then LsMacsecShortLength else c_src c).
    destruct (push_ext_ok c (c_offset c + hl) src1
                (LeMacsec (mkMacsecSlice header
                   (if unmod then MpUnmodified (mkEtherPayload (W bs (pos + hl - 2)) psrc payload)
                    else MpModified payload)))) as (c' & Ec' & V1 & V2 & V3 & V4); [lia|].
    rewrite Ec'. cbn [bind].
    assert (V : view (c_result c') =
                with_ext (view (c_result c))
                  (VMacsec (pos, hl)
                     (if unmod
                      then VMpUnmodified (mkVEp (W bs (pos + hl - 2)) psrc
                                            (pos + hl, (if 0 <? sl then pos + hl + body else lim) - (pos + hl)))
                      else VMpModified (pos + hl, (if 0 <? sl then pos + hl + body else lim) - (pos + hl))))).
    { rewrite V1, <- Elim. cbn [view_ext ms_header ms_payload].
      destruct unmod; unfold view_ep; cbn [ms_payload ep_ether_type ep_src ep_slice];
        rewrite (repr_win _ _ _ _ Rh), (repr_win _ _ _ _ Rp);
        now replace (pos + hl - pos) with hl by lia. }
    rewrite Elim in Rp. clear V1 Elim.
    destruct unmod eqn:Eun; cbn [ms_payload].
    + eapply res_rel_conv;
        [|apply (IH f c' (mkEtherPayload (W bs (pos + hl - 2)) psrc payload) (pos + hl)
                   (if 0 <? sl then pos + hl + body else lim)
                   (if 0 <? sl then LsMacsecShortLength else src))];
        cbn [ep_ether_type ep_slice]; auto.
      * now rewrite V.
      * lia.
      * lia.
      * rewrite V2, Hoff. reflexivity.
      * rewrite V3. subst src1. destruct (0 <? sl); [apply src_ok_refl|exact Hsrc].
    + cbn [vres_of]. now rewrite V.
Qed.

Theorem from_ip_rel bs :
  bytes_ok bs -> res_rel (vres_of (SlicedPacket.from_ip bs)) (wire_from_ip bs).
Proof.
  intros Hok. unfold SlicedPacket.from_ip, wire_from_ip, n_bs.
  apply (ip_rel bs new (mk_slice bs) 0 (len bs) LsSlice Hok (repr_whole bs) eq_refl).
  apply src_ok_refl.
Qed.

Theorem from_ether_type_rel bs et :
  bytes_ok bs -> res_rel (vres_of (SlicedPacket.from_ether_type et bs)) (wire_ether_type bs et).
Proof.
  intros Hok. unfold SlicedPacket.from_ether_type, wire_ether_type, slice_ether_type, n_bs.
  pose proof (repr_whole bs) as R.
  eapply res_rel_conv;
    [|apply (ether_rel bs Hok 3 5 _ (mkEtherPayload et LsSlice (mk_slice bs)) 0 (len bs) LsSlice)];
    cbn [ep_ether_type ep_slice].
  - unfold view, set_link, new. cbn [c_result sp_link sp_exts sp_net sp_transport option_map map view_link].
    unfold view_ep. cbn [ep_ether_type ep_src ep_slice].
    rewrite (repr_win _ _ _ _ R). rewrite N.sub_0_r. reflexivity.
  - lia.
  - reflexivity.
  - exact R.
  - reflexivity.
  - apply src_ok_refl.
Qed.

Theorem from_ethernet_rel bs :
  bytes_ok bs -> res_rel (vres_of (SlicedPacket.from_ethernet bs)) (wire_ethernet bs).
Proof.
  intros Hok. unfold SlicedPacket.from_ethernet, wire_ethernet, slice_ethernet2, n_bs.
  pose proof (repr_whole bs) as R.
  unfold Ethernet2Slice.from_slice_without_fcs. rewrite (repr_len _ _ _ _ R). rewrite N.sub_0_r.
  destruct (len bs <? 14) eqn:E14; [cbn; len_rel_tac|].
  cbn [map_len_err bind].
  unfold Ethernet2Slice.payload, Ethernet2Slice.ether_type, Ethernet2Slice.payload_slice.
  rd16 R 12. rewrite (repr_len _ _ _ _ R). rewrite N.sub_0_r.
  rewrite subN_ok by lia. cbn [bind].
  assert (H14 : 14 <= len bs - 0) by lia.
  destruct (repr_rest bs (mk_slice bs) 0 (len bs) 14 R H14) as (pl & Epl & Rpl).
  rewrite N.sub_0_r in Epl. rewrite Epl. cbn [bind].
  unfold slice_ether_type.
  eapply res_rel_conv;
    [|apply (ether_rel bs Hok 3 5 _ (mkEtherPayload (W bs (0 + 12)) LsSlice pl) 14 (len bs) LsSlice)];
    cbn [ep_ether_type ep_slice].
  - unfold view, set_link, new. cbn [c_result sp_link sp_exts sp_net sp_transport option_map map view_link].
    rewrite (repr_win _ _ _ _ R). rewrite N.sub_0_r. reflexivity.
  - lia.
  - reflexivity.
  - exact Rpl.
  - reflexivity.
  - apply src_ok_refl.
Qed.

Lemma sll_nonstandard_eq v : LinuxSll.nonstandard v = sll_nonstandard v.
Proof. reflexivity. Qed.

(* LinuxSllProtocolType::try_from against the two tests of the format *)
Lemma sll_protocol_type_cases hw pr :
  (sll_hw_supported hw = false /\
   LinuxSll.protocol_type_try_from hw pr = Err (EContent (CeLinuxSllArpHardwareId hw))) \/
  (sll_hw_supported hw = true /\
   exists pt, LinuxSll.protocol_type_try_from hw pr = Ok pt /\
     match pt with
     | SllEtherType et => et = pr /\ (hw =? 1) && negb (sll_nonstandard pr) = true
     | _ => (hw =? 1) && negb (sll_nonstandard pr) = false
     end).
Proof.
  unfold LinuxSll.protocol_type_try_from, LinuxSll.ARPHRD_NETLINK, LinuxSll.ARPHRD_IPGRE,
    LinuxSll.ARPHRD_RADIOTAP, LinuxSll.ARPHRD_FRAD, LinuxSll.ARPHRD_ETHERNET, sll_hw_supported.
  change (LinuxSll.nonstandard pr) with (sll_nonstandard pr).
  destruct (hw =? 824) eqn:E1; [right; split; [reflexivity|]; eexists; split; [reflexivity|cbv beta iota; lia]|].
  destruct (hw =? 778) eqn:E2; [right; split; [reflexivity|]; eexists; split; [reflexivity|cbv beta iota; lia]|].
  destruct (hw =? 803) eqn:E3; [right; split; [reflexivity|]; eexists; split; [reflexivity|cbv beta iota; lia]|].
  destruct (hw =? 770) eqn:E4; [right; split; [reflexivity|]; eexists; split; [reflexivity|cbv beta iota; lia]|].
  destruct (hw =? 1); [right; split; [reflexivity|]|left; split; reflexivity].
  destruct (sll_nonstandard pr); eexists; (split; [reflexivity|]); [|split]; reflexivity.
Qed.

Theorem from_linux_sll_rel bs :
  bytes_ok bs -> res_rel (vres_of (SlicedPacket.from_linux_sll bs)) (wire_linux_sll bs).
Proof.
  intros Hok. unfold SlicedPacket.from_linux_sll, wire_linux_sll, slice_linux_sll, n_bs.
  pose proof (repr_whole bs) as R.
  unfold LinuxSll.from_slice. rewrite (repr_len _ _ _ _ R). rewrite N.sub_0_r.
  destruct (len bs <? 16) eqn:E16; [cbn; len_rel_tac|].
  destruct (16 <=? len bs) eqn:E16'; [|lia]. cbn [bind].
  pose proof (repr_sub bs (mk_slice bs) 0 (len bs) 0 16 R ltac:(lia)) as Rh.
  rewrite N.add_0_r, drop0 in Rh. cbn [fst snd mk_slice] in *.
  change (fst (mk_slice bs)) with 0. change (snd (mk_slice bs)) with bs.
  set (h16 := (0, take 16 bs)) in *.
  unfold LinuxSll.header_from_slice. rewrite (repr_len _ _ _ _ Rh).
  replace (0 + 16 - 0) with 16 by lia. cbn [N.ltb N.compare Pos.compare Pos.compare_cont].
  change (16 <? 16) with false. cbv iota.
  rd16 Rh 0. rd16 Rh 2. rd16 Rh 14. rewrite !N.add_0_l.
  unfold LinuxSll.packet_type_try_from.
  destruct (W bs 0 <=? 7) eqn:Ept.
  2:{ assert ((7 <? W bs 0) = true) as -> by lia. reflexivity. }
  assert ((7 <? W bs 0) = false) as -> by lia. cbn [bind].
  destruct (sll_protocol_type_cases (W bs 2) (W bs 14)) as [(Hs & Et)|(Hs & pt & Et & Hpt)];
    rewrite Et, Hs; cbn [negb bind]; [reflexivity|].
  assert (Hsub : subU h16 0 16 = Ok h16).
  { rewrite subU_eq by (rewrite (repr_len _ _ _ _ Rh); lia).
    subst h16. cbn [fst snd]. rewrite drop0. f_equal. f_equal.
    unfold take. rewrite firstn_firstn. f_equal. }
  rewrite Hsub. cbn [map_len_err bind].
  unfold LinuxSll.protocol_type. rd16 Rh 2. rd16 Rh 14. rewrite !N.add_0_l, Et. cbn [bind].
  unfold LinuxSll.payload_slice. rewrite (repr_len _ _ _ _ R), N.sub_0_r, subN_ok by lia. cbn [bind].
  assert (H16 : 16 <= len bs - 0) by lia.
  destruct (repr_rest bs (mk_slice bs) 0 (len bs) 16 R H16) as (pl & Epl & Rpl).
  rewrite N.sub_0_r in Epl. rewrite Epl. cbn [bind].
  assert (Vl : view (c_result (set_link new 16 (LkLinuxSll h16 (mk_slice bs))))
               = mkVPacket (Some (VLinuxSll (0, 16) (0, len bs))) [] None None).
  { unfold view, set_link, new.
    cbn [c_result sp_link sp_exts sp_net sp_transport option_map map view_link].
    rewrite (repr_win _ _ _ _ R), (repr_win _ _ _ _ Rh). rewrite !N.sub_0_r, N.add_0_l.
    reflexivity. }
  destruct pt; try (rewrite Hpt; cbn [vres_of]; rewrite Vl; reflexivity).
  destruct Hpt as (-> & ->). unfold slice_ether_type.
  eapply res_rel_conv;
    [|apply (ether_rel bs Hok 3 5 _ (mkEtherPayload (W bs 14) LsSlice pl) 16 (len bs) LsSlice)];
    cbn [ep_ether_type ep_slice].
  - rewrite Vl. reflexivity.
  - lia.
  - reflexivity.
  - exact Rpl.
  - reflexivity.
  - apply src_ok_refl.
Qed.

(* C03 projection: accepted packets equal; rejections agree on the cause *)
Definition c03_rel (m s : vres) : Prop :=
  match m, s with
  | VOk a, VOk b => a = b
  | VErr (EContent a), VErr (EContent b) => a = b
  | VErr (ELen a), VErr (ELen b) =>
      le_layer a = le_layer b /\ le_required a = le_required b /\ le_len a = le_len b
  | _, _ => False
  end.

Lemma res_rel_c03 m s : res_rel m s -> c03_rel m s.
Proof.
  destruct m as [a|[a|a]|a], s as [b|[b|b]|b]; cbn; auto.
  intros (H1 & H2 & H3 & _). auto.
Qed.

Lemma res_rel_ok (r : res sliced_packet) s p : res_rel (vres_of r) s -> r = Ok p -> s = VOk (view p).
Proof. intros H ->. destruct s as [v|e|b]; [now rewrite <- H|destruct H|destruct H]. Qed.

Lemma res_rel_no_bug m s : res_rel m s -> forall b, m <> VBug b.
Proof. destruct m as [a|[a|a]|a]; cbn; intros H b; try discriminate. destruct H. Qed.

Lemma vres_of_bug r b : vres_of r = VBug b -> r = Bug b.
Proof. destruct r; cbn; intros H; try discriminate. now injection H as ->. Qed.

(* C07: a reported length error is the specification's (truthful) one, except
   possibly for the length source, which is then "slice" or in the F7 class *)
Definition c07_truthful (m s : vres) : Prop :=
  match m with
  | VErr (ELen e) =>
      exists se, s = VErr (ELen se) /\
                 le_layer e = le_layer se /\ le_off e = le_off se /\
                 le_len e = le_len se /\ le_required e = le_required se /\
                 (~ F7 e -> le_src e = le_src se \/ le_src e = LsSlice)
  | VErr (EContent c) => s = VErr (EContent c)
  | _ => True
  end.

Lemma res_rel_c07 m s : res_rel m s -> c07_truthful m s.
Proof.
  destruct m as [a|[a|a]|a], s as [b|[b|b]|b]; cbn; auto; try contradiction.
  - intros (H1 & H2 & H3 & H4 & H5). exists b. repeat split; auto. tauto.
  - now intros ->.
Qed.

Theorem strict_never_bug bs et b : bytes_ok bs ->
  SlicedPacket.from_ethernet bs <> Bug b /\ SlicedPacket.from_linux_sll bs <> Bug b /\
  SlicedPacket.from_ether_type et bs <> Bug b /\ SlicedPacket.from_ip bs <> Bug b.
Proof.
  intros H. repeat split; intros E.
  - apply (res_rel_no_bug _ _ (from_ethernet_rel bs H) b). now rewrite E.
  - apply (res_rel_no_bug _ _ (from_linux_sll_rel bs H) b). now rewrite E.
  - apply (res_rel_no_bug _ _ (from_ether_type_rel bs et H) b). now rewrite E.
  - apply (res_rel_no_bug _ _ (from_ip_rel bs H) b). now rewrite E.
Qed.

Theorem strict_total bs et : bytes_ok bs ->
  (exists r, vres_of (SlicedPacket.from_ethernet bs) = r /\ forall b, r <> VBug b) /\
  (forall b, SlicedPacket.from_linux_sll bs <> Bug b) /\
  (forall b, SlicedPacket.from_ether_type et bs <> Bug b) /\
  (forall b, SlicedPacket.from_ip bs <> Bug b).
Proof.
  intros H. split; [|repeat split; intros b; apply (strict_never_bug bs et b H)].
  eexists. split; [reflexivity|]. intros b. apply (res_rel_no_bug _ _ (from_ethernet_rel bs H)).
Qed.
