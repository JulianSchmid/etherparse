(* Parse/WireNested.v -- facts ABOUT the accepted views of the reference decoder
   (Parse/WireSpec.v), for every byte string and all four entry points:

   `wire_nested`: the windows of an accepted view are nested the way the formats say.
   Walking the view from the outside in, `cur` is the window of the data available to
   the next layer (already cut by every outer length field):
     - link: the Ethernet II / SLL / ether-payload window is the whole input; the data
       behind the 14 / 16 byte header is `cur` for the first extension;
     - 802.1Q tag: its window IS `cur`, its payload starts 4 bytes later, same end;
     - MACsec: SecTAG at the start of `cur`, length from the TCI octet; the payload starts
       behind it and ends at the end of `cur` (short length 0) or exactly where the short
       length says (never past the end of `cur`);
     - IPv4: header at the start of `cur` with IHL*4 bytes, the packet ends at
       pos + total_length (inside `cur`), [AH directly behind the header with its own
       length,] the payload window runs from there to pos + total_length;
     - IPv6: 40 byte header, extension window directly behind, payload behind that,
       ending at pos + 40 + payload_length, or at the end of `cur` when the field is 0;
     - ARP: 8 + 2*hlen + 2*plen bytes at the start of `cur`;
     - UDP: starts where the IP payload starts, length = UDP length field (never more
       than the IP payload), or the IP payload's length when the field is 0;
     - TCP / ICMPv4 / ICMPv6: exactly the IP payload window (TCP: data offset*4 inside).
   `nested_inside`: hence every window lies inside [0, len bs). *)
From EP Require Import Base.Bytes Parse.Types Parse.View Parse.WireSpec Parse.WireSpecFacts.
From Coq Require Import ZArith Lia ZifyN ZifyBool.

Local Open Scope N_scope.

Definition wend (w : window) : N := fst w + snd w.

Section Nested.
  Variable bs : bytes.
  Local Notation B := (B bs).
  Local Notation W := (W bs).
  Local Notation n := (len bs).

  Definition link_ok (l : option vlink) : Prop :=
    match l with
    | None => True
    | Some (VEthernet2 w) => w = (0, n) /\ 14 <= n
    | Some (VLinuxSll h w) => h = (0, 16) /\ w = (0, n) /\ 16 <= n
    | Some (VEtherPayload e) => vep_win e = (0, n) /\ vep_src e = LsSlice
    end.

  (* the data behind the link header (the whole input without one) *)
  Definition link_payload (l : option vlink) : window :=
    match l with
    | None => (0, n)
    | Some (VEthernet2 w) => (fst w + 14, snd w - 14)
    | Some (VLinuxSll h w) => (fst w + snd h, snd w - snd h)
    | Some (VEtherPayload e) => vep_win e
    end.

  Definition macsec_payload_win (p : vmacsec_payload) : window :=
    match p with
    | VMpUnmodified e => vep_win e
    | VMpModified w => w
    end.

  Definition ext_ok (cur : window) (x : vlink_ext) : Prop :=
    match x with
    | VVlan w => w = cur /\ 4 <= snd w
    | VMacsec h p =>
        let tci := B (fst h) in
        let sl := B (fst h + 1) mod 64 in
        let pw := macsec_payload_win p in
        fst h = fst cur /\ snd h = macsec_hl tci /\
        fst pw = wend h /\ wend pw <= wend cur /\
        (sl = 0 -> wend pw = wend cur) /\
        (0 < sl -> wend pw = wend h + macsec_body tci sl) /\
        match p with
        | VMpUnmodified e =>
            (tci / 4) mod 4 = 0 /\ vep_type e = W (wend h - 2) /\
            vep_src e = (if sl =? 0 then LsSlice else LsMacsecShortLength)
        | VMpModified _ => (tci / 4) mod 4 <> 0
        end
    end.

  Definition ext_payload (x : vlink_ext) : window :=
    match x with
    | VVlan w => (fst w + 4, snd w - 4)
    | VMacsec h p => macsec_payload_win p
    end.

  Fixpoint exts_nested (cur : window) (xs : list vlink_ext) : Prop :=
    match xs with
    | [] => True
    | x :: r => ext_ok cur x /\ exts_nested (ext_payload x) r
    end.

  (* the data available behind the last extension *)
  Fixpoint exts_final (cur : window) (xs : list vlink_ext) : window :=
    match xs with
    | [] => cur
    | x :: r => exts_final (ext_payload x) r
    end.

  Definition net_ok (cur : window) (nn : vnet) : Prop :=
    match nn with
    | VArp w =>
        fst w = fst cur /\ snd w = 8 + B (fst w + 4) * 2 + B (fst w + 5) * 2 /\ wend w <= wend cur
    | VIpv4 h auth p =>
        let pos := fst h in
        let tl := W (pos + 2) in
        fst h = fst cur /\ snd h = (B pos mod 16) * 4 /\ 20 <= snd h /\
        pos + tl <= wend cur /\
        match auth with
        | None => fst (vip_win p) = wend h
        | Some a => fst a = wend h /\ snd a = (B (fst a + 1) + 2) * 4 /\ fst (vip_win p) = wend a
        end /\
        wend (vip_win p) = pos + tl /\ vip_src p = LsIpv4HeaderTotalLen
    | VIpv6 h first frag x p =>
        let pos := fst h in
        let pl := W (pos + 4) in
        fst h = fst cur /\ snd h = 40 /\ fst x = wend h /\ fst (vip_win p) = wend x /\
        wend (vip_win p) <= wend cur /\
        (pl = 0 -> wend (vip_win p) = wend cur) /\
        (0 < pl -> wend (vip_win p) = pos + 40 + pl /\ vip_src p = LsIpv6HeaderPayloadLen)
    end.

  Definition net_payload (nn : option vnet) : option vip_payload :=
    match nn with
    | Some (VIpv4 _ _ p) => Some p
    | Some (VIpv6 _ _ _ _ p) => Some p
    | _ => None
    end.

  Definition tr_ok (ipw : window) (t : vtransport) : Prop :=
    match t with
    | VUdp w =>
        let l := W (fst w + 4) in
        fst w = fst ipw /\ 8 <= snd w /\ snd w <= snd ipw /\
        (l = 0 -> snd w = snd ipw) /\ (0 < l -> snd w = l)
    | VTcp hl w => w = ipw /\ hl = (B (fst w + 12) / 16) * 4 /\ 20 <= hl /\ hl <= snd w
    | VIcmpv4 w => w = ipw /\ 8 <= snd w
    | VIcmpv6 w => w = ipw /\ 8 <= snd w /\ snd w <= 4294967295
    end.

  (* a transport layer only exists behind an unfragmented IP payload *)
  Definition tr_nested (nn : option vnet) (t : option vtransport) : Prop :=
    match t with
    | None => True
    | Some t =>
        match net_payload nn with
        | Some p => vip_frag p = false /\ tr_ok (vip_win p) t
        | None => False
        end
    end.

  Definition nested (v : vpacket) : Prop :=
    link_ok (v_link v) /\
    exts_nested (link_payload (v_link v)) (v_exts v) /\
    match v_net v with
    | None => True
    | Some nn => net_ok (exts_final (link_payload (v_link v)) (v_exts v)) nn
    end /\
    tr_nested (v_net v) (v_transport v).

  (* every window the view mentions *)
  Definition link_windows (l : option vlink) : list window :=
    match l with
    | None => []
    | Some (VEthernet2 w) => [w]
    | Some (VLinuxSll h w) => [h; w]
    | Some (VEtherPayload e) => [vep_win e]
    end.
  Definition ext_windows (x : vlink_ext) : list window :=
    match x with
    | VVlan w => [w]
    | VMacsec h p => [h; macsec_payload_win p]
    end.
  Definition net_windows (nn : option vnet) : list window :=
    match nn with
    | None => []
    | Some (VArp w) => [w]
    | Some (VIpv4 h auth p) => h :: match auth with Some a => [a] | None => [] end ++ [vip_win p]
    | Some (VIpv6 h _ _ x p) => [h; x; vip_win p]
    end.
  Definition tr_windows (t : option vtransport) : list window :=
    match t with
    | None => []
    | Some (VUdp w) | Some (VTcp _ w) | Some (VIcmpv4 w) | Some (VIcmpv6 w) => [w]
    end.
  Definition vwindows (v : vpacket) : list window :=
    link_windows (v_link v) ++ flat_map ext_windows (v_exts v) ++
    net_windows (v_net v) ++ tr_windows (v_transport v).

  Definition inside (w : window) : Prop := wend w <= n.

  Lemma ext_payload_end cur x : ext_ok cur x -> wend (ext_payload x) <= wend cur.
  Proof.
    destruct x as [w|h p]; cbn [ext_ok ext_payload].
    - intros (-> & H). unfold wend in *. cbn [fst snd]. lia.
    - cbv zeta. intros (_ & _ & _ & H & _). exact H.
  Qed.

  Lemma exts_inside : forall xs cur,
    wend cur <= n -> exts_nested cur xs ->
    Forall inside (flat_map ext_windows xs) /\ wend (exts_final cur xs) <= n.
  Proof.
    induction xs as [|x r IH]; intros cur Hc; cbn [exts_nested exts_final flat_map].
    - intros _. split; [constructor|exact Hc].
    - intros (Hx & Hr).
      pose proof (ext_payload_end cur x Hx) as Hp.
      destruct (IH (ext_payload x)) as (Ha & Hb); [lia|exact Hr|].
      split; [|exact Hb].
      apply Forall_app. split; [|exact Ha].
      destruct x as [w|h p]; cbn [ext_ok ext_windows ext_payload] in *.
      + destruct Hx as (-> & _). repeat constructor. exact Hc.
      + cbv zeta in Hx. destruct Hx as (_ & _ & H3 & H4 & _).
        repeat constructor; unfold inside; [|lia].
        unfold wend in *. lia.
  Qed.

  Theorem nested_inside v : nested v -> Forall inside (vwindows v).
  Proof.
    intros (Hl & Hx & Hn & Ht). unfold vwindows.
    assert (Hlp : wend (link_payload (v_link v)) <= n).
    { destruct (v_link v) as [[w|h w|e]|]; cbn [link_ok link_payload] in *; unfold wend.
      - destruct Hl as (-> & H). cbn [fst snd]. lia.
      - destruct Hl as (-> & -> & H). cbn [fst snd]. lia.
      - destruct Hl as (-> & _). cbn [fst snd]. lia.
      - cbn [fst snd]. lia. }
    destruct (exts_inside _ _ Hlp Hx) as (Hxa & Hfin).
    set (cur := exts_final (link_payload (v_link v)) (v_exts v)) in *.
    apply Forall_app. split.
    { destruct (v_link v) as [[w|h w|e]|]; cbn [link_ok link_windows] in *; unfold inside, wend.
      - destruct Hl as (-> & H). repeat constructor; cbn [fst snd]; lia.
      - destruct Hl as (-> & -> & H). repeat constructor; cbn [fst snd]; lia.
      - destruct Hl as (-> & _). repeat constructor; cbn [fst snd]; lia.
      - constructor. }
    apply Forall_app. split; [exact Hxa|].
    unfold tr_nested in Ht.
    assert (Hnet : Forall inside (net_windows (v_net v)) /\
                   match net_payload (v_net v) with Some p => wend (vip_win p) <= n | None => True end).
    { destruct (v_net v) as [[h auth p|h first frag x p|w]|]; cbn [net_ok net_windows net_payload] in *.
      - cbv zeta in Hn. destruct Hn as (H1 & H2 & H3 & H4 & H5 & H6 & H7).
        assert (Hp : wend (vip_win p) <= n) by lia.
        split; [|exact Hp].
        constructor.
        + unfold inside. destruct auth as [a|].
          * destruct H5 as (Ha & Hb & Hc). unfold wend in *. lia.
          * unfold wend in *. lia.
        + apply Forall_app. split; [|repeat constructor; exact Hp].
          destruct auth as [a|]; [|constructor].
          destruct H5 as (Ha & Hb & Hc). repeat constructor. unfold inside, wend in *. lia.
      - cbv zeta in Hn. destruct Hn as (H1 & H2 & H3 & H4 & H5 & _).
        assert (Hp : wend (vip_win p) <= n) by lia.
        split; [|exact Hp].
        repeat constructor; unfold inside; unfold wend in *; lia.
      - destruct Hn as (H1 & H2 & H3). split; [|exact I]. repeat constructor. unfold inside. lia.
      - split; [constructor|exact I]. }
    destruct Hnet as (Hna & Hpl).
    apply Forall_app. split; [exact Hna|].
    destruct (v_transport v) as [t|]; [|constructor].
    destruct (net_payload (v_net v)) as [p|]; [|contradiction].
    destruct Ht as (_ & Ht).
    destruct t as [w|hl w|w|w]; cbn [tr_ok tr_windows] in *.
    - cbv zeta in Ht. destruct Ht as (H1 & H2 & H3 & _). repeat constructor.
      unfold inside, wend in *. lia.
    - destruct Ht as (-> & _). repeat constructor. exact Hpl.
    - destruct Ht as (-> & _). repeat constructor. exact Hpl.
    - destruct Ht as (-> & _). repeat constructor. exact Hpl.
  Qed.

  (* state of the walk in front of the network layer: p holds link and extensions, the
     data available is [pos, lim) *)
  Definition pre (p : vpacket) (pos lim : N) : Prop :=
    pos <= lim /\ link_ok (v_link p) /\
    exts_nested (link_payload (v_link p)) (v_exts p) /\
    exts_final (link_payload (v_link p)) (v_exts p) = (pos, lim - pos) /\
    v_net p = None /\ v_transport p = None.

  Lemma nested_of_pre p pos lim : pre p pos lim -> nested p.
  Proof.
    intros (_ & Hl & Hx & _ & Hn & Ht). unfold nested. rewrite Hn, Ht.
    repeat split; auto.
  Qed.

  Lemma nested_with_net p pos lim nn ot :
    pre p pos lim -> net_ok (pos, lim - pos) nn -> tr_nested (Some nn) ot ->
    nested (mkVPacket (v_link p) (v_exts p) (Some nn) ot).
  Proof.
    intros (_ & Hl & Hx & Hc & _ & _) Hn Ht. unfold nested.
    cbn [v_link v_exts v_net v_transport]. rewrite Hc. repeat split; auto.
  Qed.

  Lemma exts_nested_app : forall xs cur x,
    exts_nested cur xs -> ext_ok (exts_final cur xs) x ->
    exts_nested cur (xs ++ [x]) /\ exts_final cur (xs ++ [x]) = ext_payload x.
  Proof.
    induction xs as [|y r IH]; intros cur x; cbn [exts_nested exts_final app].
    - intros _ H. repeat split; auto.
    - intros (Hy & Hr) Hx. destruct (IH _ _ Hr Hx) as (Ha & Hb). repeat split; auto.
  Qed.

  Lemma pre_with_ext p pos lim x pos' lim' :
    pre p pos lim -> ext_ok (pos, lim - pos) x -> ext_payload x = (pos', lim' - pos') -> pos' <= lim' ->
    pre (with_ext p x) pos' lim'.
  Proof.
    intros (Hle & Hl & Hx & Hc & Hn & Ht) Ho Hp Hle'. unfold pre, with_ext.
    cbn [v_link v_exts v_net v_transport].
    rewrite <- Hc in Ho. destruct (exts_nested_app _ _ _ Hx Ho) as (Ha & Hb).
    rewrite Hb, Hp. repeat split; auto.
  Qed.

  Lemma tr_at_ok ipn pos a t : tr_at bs ipn pos a t -> tr_ok (pos, a) t.
  Proof.
    destruct t as [w|hl w|w|w]; cbn [tr_at tr_ok fst snd]; cbv zeta.
    - intros (_ & -> & H). repeat split; apply H || lia.
    - intros (_ & -> & -> & H). cbn [fst snd]. repeat split; lia.
    - intros (_ & -> & H & _). cbn [snd]. auto.
    - intros (_ & -> & H). cbn [snd]. repeat split; lia.
  Qed.

  (* IP payload in p's network layer + transport = nested *)
  Lemma nested_ip_transport p pos lim nn ip ipn frag src tpos tlim v :
    pre p pos lim ->
    wire_transport bs (with_net p nn) ipn frag src tpos tlim = VOk v ->
    net_payload (Some nn) = Some ip -> vip_frag ip = frag -> vip_win ip = (tpos, tlim - tpos) ->
    net_ok (pos, lim - pos) nn -> nested v.
  Proof.
    intros Hp Hw Hip <- Hwin Hn. pose proof Hp as (_ & _ & _ & _ & _ & Htr).
    apply wire_transport_iff in Hw. destruct Hw as [(-> & _)|(Hf & t & -> & Ht)].
    - unfold with_net. rewrite Htr. apply (nested_with_net p pos lim nn None Hp Hn). exact I.
    - apply (nested_with_net p pos lim nn (Some t) Hp Hn).
      unfold tr_nested. rewrite Hip, Hwin. split; [exact Hf|exact (tr_at_ok _ _ _ _ Ht)].
  Qed.

  Lemma wire_ah_ok zero src pos lim l next :
    wire_ah bs zero src pos lim = AhOk l next ->
    l = (B (pos + 1) + 2) * 4 /\ l <= lim - pos /\ 12 <= l.
  Proof. intros H. apply wire_ah_iff in H. lia. Qed.

  Lemma wire_ipv4_body_nested p src pos lim hl v :
    pre p pos lim -> hl = (B pos mod 16) * 4 -> 20 <= hl ->
    wire_ipv4_body bs p src pos lim hl = VOk v -> nested v.
  Proof.
    intros Hp Hhl H20 Hw. pose proof Hp as (Hle & _).
    apply wire_ipv4_body_iff in Hw. destruct Hw as (Htl & auth & ppos & next & Ha & Hw).
    apply (nested_ip_transport p pos lim _ _ _ _ _ _ _ v Hp Hw eq_refl eq_refl eq_refl).
    cbn [net_ok fst snd vip_win vip_src]. cbv zeta. unfold wend. cbn [fst snd].
    destruct auth as [a|]; cbn [ipv4_auth] in Ha.
    - destruct Ha as (_ & -> & _ & -> & Hl & _). cbn [fst snd] in *. repeat split; lia.
    - destruct Ha as (_ & -> & _). repeat split; lia.
  Qed.

  Lemma wire_ipv4_nested p src pos lim v :
    pre p pos lim -> wire_ipv4 bs p src pos lim = VOk v -> nested v.
  Proof.
    intros Hp Hw. apply wire_ipv4_iff in Hw. destruct Hw as (_ & Hi & _ & Hw).
    apply (wire_ipv4_body_nested p src pos lim _ v Hp eq_refl); [lia|exact Hw].
  Qed.

  (* the extension chain ends between its start and the limit *)
  Lemma wire_chain_bounds : forall fuel src pos lim nh frag e next fr,
    pos <= lim -> wire_chain bs fuel src pos lim nh frag = ChOk e next fr -> pos <= e /\ e <= lim.
  Proof.
    induction fuel as [|f IH]; intros src pos lim nh frag e next fr Hle Hc; [discriminate|].
    apply wire_chain_iff in Hc. destruct Hc as [(_ & -> & _)|(l & frag' & Hh & Hl & Hc)]; [lia|].
    apply chain_hdr_len in Hh. apply IH in Hc; lia.
  Qed.

  Lemma wire_exts_bounds fuel src pos lim nh e next fr :
    pos <= lim -> wire_exts bs fuel src pos lim nh = ChOk e next fr -> pos <= e /\ e <= lim.
  Proof.
    intros Hle Hc. apply wire_exts_iff in Hc.
    destruct Hc as [(_ & Hl & Hc)|(_ & Hc)]; apply wire_chain_bounds in Hc; lia.
  Qed.

  Lemma wire_ipv6_tail_nested p esrc psrc pos lim lim' v :
    pre p pos lim -> pos + 40 <= lim' -> lim' <= lim ->
    (W (pos + 4) = 0 -> lim' = lim) ->
    (0 < W (pos + 4) -> lim' = pos + 40 + W (pos + 4) /\ psrc = LsIpv6HeaderPayloadLen) ->
    wire_ipv6_tail bs p esrc psrc pos lim' = VOk v -> nested v.
  Proof.
    intros Hp H40 Hlim Hz Hnz Hw. pose proof Hp as (Hle & _).
    apply wire_ipv6_tail_iff in Hw. destruct Hw as (e & next & frag & Hc & Hw).
    apply wire_exts_bounds in Hc; [|exact H40].
    apply (nested_ip_transport p pos lim _ _ _ _ _ _ _ v Hp Hw eq_refl eq_refl eq_refl).
    cbn [net_ok fst snd vip_win vip_src]. cbv zeta. unfold wend. cbn [fst snd].
    repeat split; try lia. now apply Hnz.
  Qed.

  Lemma wire_ipv6_body_nested p src pos lim v :
    pre p pos lim -> wire_ipv6_body bs p src pos lim = VOk v -> nested v.
  Proof.
    intros Hp Hw. pose proof Hp as (Hle & _). apply wire_ipv6_body_iff in Hw.
    destruct Hw as [(Hz & H40 & Hw)|(Hz & H40 & Hw)];
      apply (wire_ipv6_tail_nested _ _ _ _ lim _ _ Hp) in Hw; auto; lia.
  Qed.

  Lemma wire_ipv6_nested p src pos lim v :
    pre p pos lim -> wire_ipv6 bs p src pos lim = VOk v -> nested v.
  Proof.
    intros Hp Hw. apply wire_ipv6_iff in Hw. exact (wire_ipv6_body_nested p src pos lim v Hp (proj2 (proj2 Hw))).
  Qed.

  Lemma wire_ip_nested p src pos lim v :
    pre p pos lim -> wire_ip bs p src pos lim = VOk v -> nested v.
  Proof.
    intros Hp Hw. apply wire_ip_iff in Hw.
    destruct Hw as [Hw|Hw]; [exact (wire_ipv4_nested _ _ _ _ _ Hp Hw)|exact (wire_ipv6_nested _ _ _ _ _ Hp Hw)].
  Qed.

  Lemma wire_arp_nested p src pos lim v :
    pre p pos lim -> wire_arp bs p src pos lim = VOk v -> nested v.
  Proof.
    intros Hp Hw. pose proof Hp as (Hle & _ & _ & _ & _ & Htr).
    apply wire_arp_iff in Hw. destruct Hw as (Hl & ->). unfold with_net. rewrite Htr.
    apply (nested_with_net p pos lim _ None Hp); [|exact I].
    cbn [net_ok fst snd]. unfold wend. cbn [fst snd]. repeat split; lia.
  Qed.

  Lemma wire_net_nested p et src pos lim v :
    pre p pos lim -> wire_net bs p et src pos lim = VOk v -> nested v.
  Proof.
    intros Hp Hw. apply wire_net_iff in Hw. destruct Hw as [(_ & Hw)|[(_ & Hw)|[(_ & Hw)|(_ & ->)]]].
    - exact (wire_arp_nested _ _ _ _ _ Hp Hw).
    - exact (wire_ipv4_nested _ _ _ _ _ Hp Hw).
    - exact (wire_ipv6_nested _ _ _ _ _ Hp Hw).
    - exact (nested_of_pre _ _ _ Hp).
  Qed.

  (* a SecTAG at the start of [pos, lim) whose payload window ends at macsec_lim *)
  Lemma macsec_ext_ok pos lim pl :
    let tci := B pos in
    let sl := B (pos + 1) mod 64 in
    let hl := macsec_hl tci in
    hl <= lim - pos -> (0 < sl -> hl + macsec_body tci sl <= lim - pos) ->
    macsec_payload_win pl = (pos + hl, macsec_lim bs pos lim - (pos + hl)) ->
    match pl with
    | VMpUnmodified e =>
        (tci / 4) mod 4 = 0 /\ vep_type e = W (pos + hl - 2) /\
        vep_src e = (if 0 <? sl then LsMacsecShortLength else LsSlice)
    | VMpModified _ => (tci / 4) mod 4 <> 0
    end ->
    ext_ok (pos, lim - pos) (VMacsec (pos, hl) pl) /\ pos + hl <= macsec_lim bs pos lim.
  Proof.
    cbv zeta. intros Hhl Hbody Hwin Hpl. pose proof (macsec_hl_bounds (B pos)) as Hb.
    destruct (macsec_lim_spec bs pos lim Hhl Hbody) as (Hl1 & Hl3 & Hl4).
    split; [|lia]. cbn [ext_ok fst snd]. cbv zeta. rewrite Hwin. unfold wend. cbn [fst snd].
    split; [reflexivity|]. split; [reflexivity|]. split; [reflexivity|]. split; [lia|].
    split; [intros H0; specialize (Hl3 H0); lia|]. split; [intros H0; specialize (Hl4 H0); lia|].
    destruct pl as [e|w]; [|exact Hpl]. destruct Hpl as (Hu & Ht & Hs).
    split; [exact Hu|]. split; [rewrite Ht; f_equal; lia|]. rewrite Hs.
    destruct (B (pos + 1) mod 64); reflexivity.
  Qed.

  Lemma wire_ether_nested : forall cap p et src pos lim v,
    pre p pos lim -> wire_ether bs cap p et src pos lim = VOk v -> nested v.
  Proof.
    induction cap as [|c IH]; intros p et src pos lim v Hp Hw; pose proof Hp as (Hle & _);
      destruct (link_ext_cases et) as [Hv|[->|(Hx & Hm)]];
      try (rewrite (wire_ether_net bs _ _ _ _ _ _ Hx Hm) in Hw; exact (wire_net_nested _ _ _ _ _ _ Hp Hw)).
    - rewrite wire_ether_stop in Hw by (left; exact Hv). injection Hw as <-. exact (nested_of_pre _ _ _ Hp).
    - rewrite wire_ether_stop in Hw by (right; reflexivity). injection Hw as <-. exact (nested_of_pre _ _ _ Hp).
    - apply (wire_ether_vlan bs _ _ _ _ _ _ _ Hv) in Hw. destruct Hw as (H4 & Hw).
      apply IH in Hw; [exact Hw|]. apply (pre_with_ext p pos lim _ (pos + 4) lim Hp).
      + cbn [ext_ok snd]. split; [reflexivity|lia].
      + cbn [ext_payload fst snd]. f_equal. lia.
      + lia.
    - apply wire_ether_macsec in Hw. cbv zeta in Hw. destruct Hw as (_ & _ & Hhl & Hbody & Hw).
      destruct ((B pos / 4) mod 4 =? 0) eqn:Eu.
      + apply IH in Hw; [exact Hw|].
        match type of Hw with wire_ether _ _ (with_ext _ (VMacsec _ ?pl)) _ _ _ _ = _ =>
          destruct (macsec_ext_ok pos lim pl Hhl Hbody eq_refl) as (Hok & Hl1) end.
        { cbn [vep_type vep_src]. repeat split. lia. }
        apply (pre_with_ext p pos lim _ _ _ Hp Hok); [reflexivity|exact Hl1].
      + subst v.
        match goal with |- nested (with_ext _ (VMacsec _ ?pl)) =>
          destruct (macsec_ext_ok pos lim pl Hhl Hbody eq_refl) as (Hok & Hl1) end.
        { lia. }
        eapply nested_of_pre. apply (pre_with_ext p pos lim _ _ _ Hp Hok); [reflexivity|exact Hl1].
  Qed.

  Theorem wire_ethernet_nested v : wire_ethernet bs = VOk v -> nested v.
  Proof.
    unfold wire_ethernet, n_bs. destruct (n <? 14) eqn:E; [discriminate|].
    apply wire_ether_nested. unfold pre. cbn [v_link v_exts v_net v_transport link_ok link_payload
      exts_nested exts_final fst snd].
    repeat split; try lia.
  Qed.

  Theorem wire_linux_sll_nested v : wire_linux_sll bs = VOk v -> nested v.
  Proof.
    unfold wire_linux_sll, n_bs. cbv zeta. destruct (n <? 16) eqn:E; [discriminate|].
    destruct (7 <? W 0); [discriminate|].
    destruct (negb (sll_hw_supported (W 2))); [discriminate|].
    assert (Hp : pre (mkVPacket (Some (VLinuxSll (0, 16) (0, n))) [] None None) 16 n).
    { unfold pre. cbn [v_link v_exts v_net v_transport link_ok link_payload exts_nested exts_final fst snd].
      repeat split; try lia. }
    destruct ((W 2 =? 1) && negb (sll_nonstandard (W 14))).
    - now apply wire_ether_nested.
    - intros H. injection H as <-. exact (nested_of_pre _ _ _ Hp).
  Qed.

  Theorem wire_ether_type_nested et v : wire_ether_type bs et = VOk v -> nested v.
  Proof.
    unfold wire_ether_type, n_bs. apply wire_ether_nested. unfold pre.
    cbn [v_link v_exts v_net v_transport link_ok link_payload exts_nested exts_final vep_win vep_src].
    repeat split; try lia. f_equal. lia.
  Qed.

  Theorem wire_from_ip_nested v : wire_from_ip bs = VOk v -> nested v.
  Proof.
    unfold wire_from_ip, n_bs, empty_packet. apply wire_ip_nested. unfold pre.
    cbn [v_link v_exts v_net v_transport link_ok link_payload exts_nested exts_final].
    repeat split; try lia. f_equal. lia.
  Qed.
End Nested.

Theorem wire_nested bs et v :
  (wire_ethernet bs = VOk v -> nested bs v) /\
  (wire_linux_sll bs = VOk v -> nested bs v) /\
  (wire_ether_type bs et = VOk v -> nested bs v) /\
  (wire_from_ip bs = VOk v -> nested bs v).
Proof.
  split; [|split; [|split]];
    [apply wire_ethernet_nested|apply wire_linux_sll_nested|apply wire_ether_type_nested
    |apply wire_from_ip_nested].
Qed.
