(* Parse/Repr.v -- the pointer model meets absolute positions: a slice value
   `repr`esents the window [pos, lim) of the caller's buffer; reads and
   sub-slicing inside the window succeed and are reads / windows of the buffer. *)
From EP Require Import Base.Bytes Base.Lists Parse.Types Parse.WireSpec.
From Coq Require Import ZArith Lia ZifyN ZifyBool.

Local Open Scope N_scope.

Lemma nth_error_nth_lt {A} (l : list A) i d :
  (i < length l)%nat -> nth_error l i = Some (nth i l d).
Proof. apply nth_error_nth'. Qed.

Lemma skipn_skipn_add {A} (l : list A) a b : skipn a (skipn b l) = skipn (b + a) l.
Proof.
  revert l. induction b as [|b IH]; intros l; [reflexivity|].
  destruct l as [|x l]; cbn; [now rewrite skipn_nil|]. apply IH.
Qed.

Lemma firstn_skipn_firstn {A} (l : list A) n k m :
  (k + n <= m)%nat -> firstn n (skipn k (firstn m l)) = firstn n (skipn k l).
Proof.
  revert l k m. induction n as [|n IH]; intros l k m H; [reflexivity|].
  revert l m H. induction k as [|k IHk]; intros l m H.
  - cbn [skipn]. destruct m as [|m]; [lia|]. destruct l as [|x l]; [reflexivity|].
    cbn [firstn]. f_equal. specialize (IH l 0%nat m). cbn [skipn] in IH. apply IH. lia.
  - destruct m as [|m]; [lia|]. destruct l as [|x l]; [reflexivity|].
    cbn [firstn skipn]. apply IHk. lia.
Qed.

Definition repr (bs : bytes) (s : slice) (pos lim : N) : Prop :=
  s = (pos, take (lim - pos) (drop pos bs)) /\ pos <= lim /\ lim <= len bs.

Lemma repr_whole bs : repr bs (mk_slice bs) 0 (len bs).
Proof.
  unfold repr, mk_slice, take, drop. split; [|lia].
  rewrite N.sub_0_r. cbn [N.to_nat skipn]. unfold len.
  rewrite Nnat.Nat2N.id. now rewrite firstn_all.
Qed.

Lemma repr_len bs s pos lim : repr bs s pos lim -> s_len s = lim - pos.
Proof.
  intros (-> & H1 & H2). unfold s_len. cbn [snd].
  rewrite len_take, len_drop. lia.
Qed.

Lemma repr_off bs s pos lim : repr bs s pos lim -> s_off s = pos.
Proof. intros (-> & _). reflexivity. Qed.

Lemma repr_win bs s pos lim : repr bs s pos lim -> win_of s = (pos, lim - pos).
Proof.
  intros H. unfold win_of. now rewrite (repr_off _ _ _ _ H), (repr_len _ _ _ _ H).
Qed.

Lemma repr_length bs s pos lim :
  repr bs s pos lim -> length (snd s) = N.to_nat (lim - pos).
Proof.
  intros H. pose proof (repr_len _ _ _ _ H) as L. unfold s_len, len in L. lia.
Qed.

Lemma repr_rd bs s pos lim i :
  repr bs s pos lim -> i < lim - pos -> rd (snd s) i = Some (B bs (pos + i)).
Proof.
  intros (-> & H1 & H2) Hi. unfold rd, take, drop, B. cbn [snd].
  rewrite nth_error_firstn_lt by lia. rewrite nth_error_skipn.
  replace (N.to_nat pos + N.to_nat i)%nat with (N.to_nat (pos + i)) by lia.
  apply nth_error_nth_lt. unfold len in H2. lia.
Qed.

Lemma repr_rdU bs s pos lim i :
  repr bs s pos lim -> i < lim - pos -> rdU s i = Ok (B bs (pos + i)).
Proof. intros H Hi. unfold rdU. now rewrite (repr_rd _ _ _ _ _ H Hi). Qed.

Lemma repr_rd16 bs s pos lim i :
  repr bs s pos lim -> i + 1 < lim - pos -> rd16 s i = Ok (W bs (pos + i)).
Proof.
  intros H Hi. unfold rd16.
  rewrite (repr_rdU _ _ _ _ i H) by lia. cbn [bind].
  rewrite (repr_rdU _ _ _ _ (i + 1) H) by lia. cbn [bind].
  unfold W, be16. now rewrite N.add_assoc.
Qed.

Lemma repr_sub bs s pos lim k n :
  repr bs s pos lim -> k + n <= lim - pos ->
  repr bs (pos + k, take n (drop k (snd s))) (pos + k) (pos + k + n).
Proof.
  intros (-> & H1 & H2) Hk. unfold repr. split; [|lia].
  f_equal. cbn [snd]. unfold take, drop.
  replace (N.to_nat (pos + k + n - (pos + k))) with (N.to_nat n) by lia.
  rewrite firstn_skipn_firstn by lia.
  rewrite skipn_skipn_add. f_equal. f_equal. lia.
Qed.

Lemma repr_subU bs s pos lim k n :
  repr bs s pos lim -> k + n <= lim - pos ->
  exists s', subU s k n = Ok s' /\ repr bs s' (pos + k) (pos + k + n).
Proof.
  intros H Hk. unfold subU. rewrite (repr_len _ _ _ _ H).
  destruct (k + n <=? lim - pos) eqn:E; [|lia].
  rewrite (repr_off _ _ _ _ H : fst s = pos).
  eexists. split; [reflexivity|]. now apply (repr_sub bs s pos lim).
Qed.

Lemma subN_ok a b : b <= a -> subN a b = Ok (a - b).
Proof. intros H. unfold subN. destruct (b <=? a) eqn:E; [reflexivity|lia]. Qed.

Lemma subN_inv a b c : subN a b = Ok c -> b <= a /\ c = a - b.
Proof.
  unfold subN. destruct (b <=? a) eqn:E; [|discriminate]. intros X. injection X as <-.
  split; [lia|reflexivity].
Qed.

(* the common "rest of the slice behind k bytes" (after subN (s_len s) k) *)
Lemma repr_rest bs s pos lim k :
  repr bs s pos lim -> k <= lim - pos ->
  exists s', subU s k (lim - pos - k) = Ok s' /\ repr bs s' (pos + k) lim.
Proof.
  intros H Hk.
  assert (Hk2 : k + (lim - pos - k) <= lim - pos) by lia.
  destruct (repr_subU bs s pos lim k (lim - pos - k) H Hk2) as (s' & E & R).
  exists s'. split; [exact E|]. destruct H as (_ & P1 & P2).
  replace (pos + k + (lim - pos - k)) with lim in R by lia. exact R.
Qed.

(* prefix of the slice *)
Lemma repr_prefix bs s pos lim n :
  repr bs s pos lim -> n <= lim - pos ->
  exists s', subU s 0 n = Ok s' /\ repr bs s' pos (pos + n).
Proof.
  intros H Hn. assert (Hn2 : 0 + n <= lim - pos) by lia.
  destruct (repr_subU bs s pos lim 0 n H Hn2) as (s' & E & R).
  exists s'. split; [exact E|]. now rewrite N.add_0_r in R.
Qed.

Lemma B_lt bs i : bytes_ok bs -> B bs i < 256.
Proof.
  intros H. unfold B. destruct (Nat.lt_ge_cases (N.to_nat i) (length bs)) as [L|L].
  - unfold bytes_ok in H. rewrite Forall_forall in H. apply H. now apply nth_In.
  - rewrite nth_overflow by lia. lia.
Qed.
