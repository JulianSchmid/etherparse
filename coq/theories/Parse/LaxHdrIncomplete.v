(* Parse/LaxHdrIncomplete.v -- C05 clause (d) for LaxPacketHeaders.

   Composition, no new model:
     C04_lax_headers_eq_slices     LaxPacketHeaders = lax slicing cut at a refilled extension header
                                   (`lhagree true`), C04_lax_cut_is_slicing_* (cut = uncut unless
                                   `lax_stopped_at_ext`)
     C05_incomplete_iff_packet     `packet_flags_ok` of the LaxSlicedPacket result
     lconv_payload_inc / the text of `lconv`, `carry_src`  (which payload the struct hands out)

   Result (`hdr_flags_ok`): LaxPacketHeaders.from_X bs = Ok p, outside the refilled-extension class:
   LaxSlicedPacket.from_X bs = Ok r' with `packet_flags_ok` (every MACsec extension and the IP layer of r'
   flagged exactly when the length field read from the buffer promises more than the enclosing slice
   holds), the struct's link-extension / network header windows are those of r', and the ONE payload the
   struct hands out (`lhv_payload`) is
     - behind an IPv4 / IPv6 header: flagged incomplete exactly when total length / 40 + payload length at
       the position of the IP header exceeds the slice the IP layer was decoded from (the enclosing window
       `enc_after enc0 exts`); without a transport header the payload is an IP payload descriptor with
       `ip_flag_ok`: flagged => length source Slice and the window ends at the end of the enclosing slice;
     - behind ARP: Empty;
     - no network header, last link extension MACsec at `pos` in a slice of `a` bytes: flagged exactly when
       `(0 < sl) && (a < hl + body)`; flagged => the window is (pos + hl, a - hl), ends at the end of the
       enclosing slice, and -- for an unmodified payload -- the length source is the one LaxPacketHeaders
       carries forward: `lvexts_src ys Slice` = the last length source other than Slice among the MACsec
       extensions in front (Slice when none of them had a short length).  That it is NOT always Slice is
       `lax_hdr_incomplete_src_refuted` below (two MACsec headers, the first with a short length that is
       met, the second with a short length that is not): observation (D) of notes/C04.md reaching clause
       (d3) of C05;
     - no network header, last link extension a VLAN tag or no link extension: not flagged. *)
From Coq Require Import ZArith Lia ZifyN ZifyBool List.
From EP Require Import Base.Bytes Parse.Types Parse.Slices Parse.Cursor Parse.View
  Parse.WireSpec Parse.Repr Parse.StrictProofs Parse.LaxSlices Parse.LaxCursor Parse.LaxView
  Parse.LaxProofs Parse.LaxFacts Parse.LaxWire Parse.LaxWireProofs Parse.LaxWireFacts Parse.LaxPrefix
  Parse.LaxHdrFacts Parse.LaxWire2 Parse.LaxPrefixNet
  Parse.HdrModel Parse.HdrView Parse.HdrCut Parse.HdrProofs Parse.HdrProofs2 Parse.HdrProofs3 Parse.HdrLaxModel Parse.HdrLaxView Parse.HdrLaxProofs Parse.HdrLaxCut
  Parse.HdrLaxCutProofs Parse.HdrLaxProofs2 Parse.HdrLaxProofs3 Parse.HdrLaxC05
  Parse.LaxHdrPrefixNet.
Import ListNotations.
Local Open Scope N_scope.

(* the length source LaxPacketHeaders carries forward (the `len_source` variable of
   LaxPacketHeaders::from_ether_type): the last one other than Slice among the unmodified MACsec
   payloads, on the observer view *)
Fixpoint lvexts_src (l : list lvlink_ext) (acc : len_source) : len_source :=
  match l with
  | [] => acc
  | LVMacsec _ (LVMpUnmodified e) :: r =>
      lvexts_src r (match lvep_src e with LsSlice => acc | s => s end)
  | _ :: r => lvexts_src r acc
  end.

Lemma lvexts_src_view l : forall acc, lvexts_src (map lview_ext l) acc = lexts_src l acc.
Proof.
  induction l as [|x r IH]; intros acc; [reflexivity|].
  destruct x as [s|m]; cbn [map lview_ext lvexts_src lexts_src]; [apply IH|].
  unfold lview_macsec. destruct (lms_payload m) as [e|i s]; cbn [lview_ep lvep_src]; apply IH.
Qed.

Definition ip_payload_ok (enc : window) (promised : N) (tr : option hvtr) (pl : lhvpayload) : Prop :=
  payload_inc pl = (snd enc <? promised) /\
  (tr = None -> exists p, pl = LHvpIp p /\ ip_flag_ok enc promised p).

Definition macsec_payload_ok (bs : bytes) (enc : window) (carried : len_source) (hdr : window)
  (pl : lhvpayload) : Prop :=
  let pos := fst enc in
  let a := snd enc in
  let sl := WireSpec.B bs (pos + 1) mod 64 in
  let unmod := (WireSpec.B bs pos / 4) mod 4 =? 0 in
  let body := if unmod then sl - 2 else sl in
  let hl := snd hdr in
  fst hdr = pos /\
  payload_inc pl = ((0 <? sl) && (a <? hl + body)) /\
  (payload_inc pl = true ->
   match pl with
   | LHvpEther e =>
       lvep_win e = (pos + hl, a - hl) /\ win_end (lvep_win e) = win_end enc /\ lvep_src e = carried
   | LHvpMacsecMod _ w => w = (pos + hl, a - hl) /\ win_end w = win_end enc
   | _ => False
   end).

Definition hdr_payload_flag_ok (bs : bytes) (enc0 : window) (q : lvpacket) (v : lhview) : Prop :=
  let pl := lhv_payload v in
  let enc := enc_after enc0 (lv_exts q) in
  match lv_net q with
  | Some (LVIpv4 _ _ _) => ip_payload_ok enc (WireSpec.W bs (fst enc + 2)) (lhv_tr v) pl
  | Some (LVIpv6 _ _ _ _ _) => ip_payload_ok enc (40 + WireSpec.W bs (fst enc + 4)) (lhv_tr v) pl
  | Some (LVArp _) => lhv_tr v = None -> pl = LHvpEmpty
  | None =>
      lhv_tr v = None ->
      (forall ys hdr mp, lv_exts q = ys ++ [LVMacsec hdr mp] ->
         macsec_payload_ok bs (enc_after enc0 ys) (lvexts_src ys LsSlice) hdr pl) /\
      (forall ys w, lv_exts q = ys ++ [LVVlan w] -> payload_inc pl = false) /\
      (lv_exts q = [] -> payload_inc pl = false)
  end.

Definition hdr_flags_ok (bs : bytes) (enc0 : window) (laxcut lax : res lax_sliced_packet)
  (lh : res lhpacket) : Prop :=
  forall p, lh = Ok p -> lax_stopped_at_ext laxcut = false ->
  exists r' v,
    lax = Ok r' /\ lhview_of p = Ok v /\
    packet_flags_ok bs enc0 (lview r') /\
    lhv_exts v = map (fun x => ext_hdr (strictify_ext x)) (lv_exts (lview r')) /\
    lhv_net v = option_map lnet_hdr (lv_net (lview r')) /\
    hdr_payload_flag_ok bs enc0 (lview r') v.

Lemma lconv_tr_inc inc t r : lconv_tr inc t = Ok r -> payload_inc (snd r) = inc.
Proof.
  destruct t as [s|hl s|s|s]; cbn [lconv_tr].
  3: destruct (Icmpv4Acc.header_len s); cbn [bind]; try discriminate.
  all: intros H; injection H as <-; reflexivity.
Qed.

Lemma lconv_payload_net sp v' : lconv sp = Ok v' ->
  match lsp_net sp with
  | Some n =>
      match lnp n with
      | Some ip =>
          payload_inc (lhv_payload v') = lipp_incomplete ip /\
          (lsp_transport sp = None -> lhv_payload v' = LHvpIp (lview_ipp ip))
      | None => lsp_transport sp = None -> lhv_payload v' = LHvpEmpty
      end
  | None => lsp_transport sp = None -> lconv_ether_payload sp = Ok (lhv_payload v')
  end.
Proof.
  unfold lconv. intros Hc.
  destruct (lsp_transport sp) as [t|].
  - destruct (lconv_tr _ t) as [r|e|b] eqn:Et; cbn [bind fst snd] in Hc; try discriminate.
    injection Hc as <-. cbn [lhv_payload]. apply lconv_tr_inc in Et.
    destruct (lsp_net sp) as [n|]; [|discriminate].
    destruct (lnp n); [split; [exact Et|discriminate]|discriminate].
  - destruct (lsp_net sp) as [[w|w|a]|]; cbn [lnp bind fst snd] in Hc |- *.
    + injection Hc as <-. split; reflexivity.
    + injection Hc as <-. split; reflexivity.
    + injection Hc as <-. reflexivity.
    + destruct (lconv_ether_payload sp) as [e|e|b]; cbn [bind fst snd] in Hc; try discriminate.
      injection Hc as <-. reflexivity.
Qed.

Lemma map_snoc_inv {A B} (f : A -> B) (l : list A) ys y :
  map f l = ys ++ [y] -> exists l' x, l = l' ++ [x] /\ map f l' = ys /\ f x = y.
Proof.
  revert ys. induction l as [|a l IH]; intros ys H.
  - destruct ys; discriminate.
  - destruct ys as [|b ys]; cbn [map app] in H.
    + injection H as Ha Hl. destruct l; [|discriminate]. exists [], a. repeat split. exact Ha.
    + injection H as Ha Hl. destruct (IH ys Hl) as (l' & x & -> & Hm & Hx).
      exists (a :: l'), x. cbn [map app]. rewrite Ha, Hm. repeat split. exact Hx.
Qed.

Lemma payload_flag_core bs enc0 sp v v' :
  packet_flags_ok bs enc0 (lview sp) -> lconv sp = Ok v' -> lhv_rel true sp v v' ->
  hdr_payload_flag_ok bs enc0 (lview sp) v.
Proof.
  intros (FX & FN) Hc (R1 & R2 & R3 & R4 & R5 & R6).
  pose proof (lconv_payload_net sp v' Hc) as P.
  destruct (lconv_fields sp v' Hc) as (_ & _ & F3 & _).
  assert (Htr : lhv_tr v = None -> lsp_transport sp = None).
  { intros T. rewrite R4 in T. destruct (lsp_transport sp); [|reflexivity].
    exfalso. apply F3; [discriminate|exact T]. }
  unfold hdr_payload_flag_ok. cbv zeta.
  unfold lview in FN, FX |- *. cbn [lv_net lv_exts] in FN, FX |- *.
  assert (Ip : forall enc ip promised,
            payload_inc (lhv_payload v') = lipp_incomplete ip /\
            (lsp_transport sp = None -> lhv_payload v' = LHvpIp (lview_ipp ip)) ->
            ip_flag_ok enc promised (lview_ipp ip) ->
            ip_payload_ok enc promised (lhv_tr v) (lhv_payload v)).
  { intros enc ip promised (P1 & P2) FI. unfold ip_payload_ok. rewrite R5, payload_inc_carry. split.
    - rewrite P1. exact (proj1 FI).
    - intros T. exists (lview_ipp ip). rewrite (P2 (Htr T)). split; [reflexivity|exact FI]. }
  destruct (lsp_net sp) as [[w|w|a]|]; cbn [option_map lview_net lnp] in *.
  - unfold lview_v4 in *. cbn [net_flag_ok] in FN.
    destruct (win_of (lv4_header w)) as (hp, hl0). exact (Ip _ _ _ P (proj2 FN)).
  - unfold lview_v6 in *. cbn [net_flag_ok] in FN.
    destruct (win_of (lv6_header w)) as (hp, hl0). exact (Ip _ _ _ P (proj2 FN)).
  - (* ARP *)
    intros T. rewrite R5, (P (Htr T)). reflexivity.
  - (* no network layer: the last ether payload *)
    intros T. specialize (P (Htr T)). unfold lconv_ether_payload in P.
    split; [|split].
    + intros ys hdr mp E.
      destruct (map_snoc_inv lview_ext (lsp_exts sp) ys _ E) as (l' & x & El & Hm & Hx).
      rewrite El in P. rewrite last_some_snoc in P.
      rewrite E in FX. apply exts_flags_snoc in FX. destruct FX as (_ & FX).
      destruct x as [s|m]; [discriminate|]. cbn [lview_ext] in Hx. unfold lview_macsec in Hx.
      injection Hx as Hh Hp.
      assert (Hcar : forall e, lms_payload m = LMpUnmodified e -> lep_src e = LsSlice ->
                lexts_src (lsp_exts sp) LsSlice = lvexts_src ys LsSlice).
      { intros e Em Es. rewrite El, lexts_src_snoc_macsec, Em, Es, <- Hm. symmetry. apply lvexts_src_view. }
      cbn [ext_flag_ok] in FX. destruct hdr as (hp, hl). cbv zeta in FX.
      destruct FX as (FX1 & FX2 & FX3).
      unfold macsec_payload_ok. cbv zeta. cbn [fst snd].
      split; [exact FX1|].
      destruct (lms_payload m) as [e|i s] eqn:Em; injection P as P; rewrite R5, <- P;
        cbn [carry_src payload_inc lvep_incomplete lvep_win lvep_src]; rewrite <- Hp in FX2, FX3.
      * split; [exact FX2|]. intros Hi. destruct (FX3 Hi) as (W1 & W2 & W3).
        split; [exact W1|]. split; [exact W2|]. apply (Hcar e eq_refl). exact W3.
      * split; [exact FX2|]. intros Hi. destruct (FX3 Hi) as (W1 & W2 & _). split; assumption.
    + intros ys w E.
      destruct (map_snoc_inv lview_ext (lsp_exts sp) ys _ E) as (l' & x & El & Hm & Hx).
      rewrite El in P. rewrite last_some_snoc in P.
      destruct x as [s|m]; [|cbn [lview_ext] in Hx; unfold lview_macsec in Hx; discriminate].
      destruct (SingleVlanSlice.payload s) as [e|e|b]; cbn [bind] in P; try discriminate.
      injection P as P. rewrite R5, <- P. reflexivity.
    + intros E. destruct (lsp_exts sp) as [|x r]; [|discriminate]. cbn [map last] in P.
      rewrite R5, payload_inc_carry.
      destruct (lsp_link sp) as [[s|h s|e]|].
      * destruct (Ethernet2Slice.payload s) as [e|e|b]; cbn [bind] in P; try discriminate.
        injection P as <-. reflexivity.
      * injection P as <-. reflexivity.
      * injection P as <-. reflexivity.
      * injection P as <-. reflexivity.
Qed.

Lemma hdr_flags_core bs enc0 (cl ll : res lax_sliced_packet) lh :
  (forall r', ll = Ok r' -> packet_flags_ok bs enc0 (lview r')) ->
  lhagree true lh cl -> (lax_stopped_at_ext cl = false -> cl = ll) ->
  hdr_flags_ok bs enc0 cl ll lh.
Proof.
  intros FL L Hcut p Hp Hs. rewrite (Hcut Hs) in L. subst lh.
  unfold lhagree in L. destruct ll as [r'|e|b]; try contradiction.
  destruct L as (v & v' & Hv & Hc & R).
  exists r', v. split; [reflexivity|]. split; [exact Hv|].
  pose proof (FL r' eq_refl) as F. split; [exact F|].
  destruct (lconv_fields r' v' Hc) as (F1 & F2 & _ & _).
  pose proof R as (R1 & R2 & R3 & R4 & R5 & R6).
  split.
  { rewrite R2, F1. unfold lview. cbn [lv_exts]. rewrite map_map. apply map_ext.
    intros x. apply lconv_ext_hdr. }
  split.
  { rewrite R3, F2. unfold lview. cbn [lv_net]. destruct (lsp_net r') as [n|]; [|reflexivity].
    cbn [option_map]. unfold lnet_hdr. now rewrite lconv_net_hdr. }
  exact (payload_flag_core bs enc0 r' v v' F Hc R).
Qed.

(* (d) for LaxPacketHeaders *)
Theorem hdr_lax_incomplete_iff bs et : bytes_ok bs ->
  hdr_flags_ok bs (14, len bs - 14) (LaxCut.from_ethernet true bs) (LaxSlicedPacket.from_ethernet bs)
    (LaxPacketHeaders.from_ethernet bs) /\
  hdr_flags_ok bs (0, len bs) (LaxCut.from_ether_type true et bs) (LaxSlicedPacket.from_ether_type et bs)
    (LaxPacketHeaders.from_ether_type et bs) /\
  hdr_flags_ok bs (0, len bs) (LaxCut.from_ip true bs) (LaxSlicedPacket.from_ip bs)
    (LaxPacketHeaders.from_ip bs).
Proof.
  intros Hok. split; [|split].
  - pose proof (lax_hdr_agree_ethernet bs Hok) as L.
    apply hdr_flags_core; [|exact L|].
    + intros r' E. exact (proj1 (lax_incomplete_iff_packet bs et r' Hok) E).
    + intros S. apply lcut_only_when_stopped_ethernet; [exact S|].
      intros b. now apply (lhagree_nobug_s _ _ _ b L).
  - pose proof (lax_hdr_agree_ether_type et bs Hok) as L.
    apply hdr_flags_core; [|exact L|].
    + intros r' E. exact (proj1 (proj2 (lax_incomplete_iff_packet bs et r' Hok)) E).
    + intros S. apply lcut_only_when_stopped_ether_type; [exact S|].
      intros b. now apply (lhagree_nobug_s _ _ _ b L).
  - destruct (F11 bs) eqn:Hf.
    { destruct (lax_hdr_f11_both_err bs Hf) as (e & e' & E & _). intros p Hp. congruence. }
    pose proof (lax_hdr_agree_ip bs Hok Hf) as L.
    apply hdr_flags_core; [|exact L|].
    + intros r' E. exact (proj2 (proj2 (lax_incomplete_iff_packet bs et r' Hok)) E).
    + intros S. apply lcut_only_when_stopped_ip; [exact S|].
      intros b. now apply (lhagree_nobug_s _ _ _ b L).
Qed.

(* (d3) "the slice reported as length source" fails for the ether payload LaxPacketHeaders hands out
   behind two MACsec headers: Ethernet II / MACsec, unmodified, short length 20 (8 byte SecTAG incl. ether
   type, 18 byte body: met, 18 bytes follow) / MACsec, unmodified, short length 40 (not met: 10 bytes
   follow the second SecTAG).  LaxSlicedPacket: second MACsec payload incomplete, length source Slice.
   LaxPacketHeaders: ether payload incomplete = true, the same window, length source MacsecShortLength
   (carried forward from the first header). *)
Definition ex_two_macsec : bytes :=
  [1;2;3;4;5;6; 7;8;9;10;11;12; 136;229;
   0;20; 0;0;0;1; 136;229;
   0;40; 0;0;0;2; 8;0;
   69;0;0;20; 0;0;0;0; 64;17].

Theorem lax_hdr_incomplete_src_refuted :
  exists bs w,
    bytes_ok bs /\ lax_stopped_at_ext (LaxCut.from_ethernet true bs) = false /\
    (exists r' h1 p1 h2 e2, LaxSlicedPacket.from_ethernet bs = Ok r' /\
       lv_exts (lview r') = [LVMacsec h1 p1; LVMacsec h2 (LVMpUnmodified e2)] /\
       lvep_incomplete e2 = true /\ lvep_src e2 = LsSlice /\ lvep_win e2 = w) /\
    exists p v e, LaxPacketHeaders.from_ethernet bs = Ok p /\ lhview_of p = Ok v /\
      lhv_net v = None /\ lhv_payload v = LHvpEther e /\
      lvep_incomplete e = true /\ lvep_win e = w /\ win_end w = len bs /\
      lvep_src e = LsMacsecShortLength.
Proof.
  exists ex_two_macsec. eexists.
  split; [apply bytes_okb_spec; vm_compute; reflexivity|].
  split; [vm_compute; reflexivity|].
  split.
  { do 5 eexists. split; [vm_compute; reflexivity|]. split; [reflexivity|].
    split; [reflexivity|]. split; reflexivity. }
  do 3 eexists. split; [vm_compute; reflexivity|]. split; [vm_compute; reflexivity|].
  split; [reflexivity|]. split; [reflexivity|]. split; [reflexivity|]. split; [reflexivity|].
  split; reflexivity.
Qed.
