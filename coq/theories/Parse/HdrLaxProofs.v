(* Parse/HdrLaxProofs.v -- the lax struct decoders (HdrLaxModel.v) against the lax
   slicing model (LaxSlices.v, LaxCursor.v), layer by layer:
     - transport: the "decode transport layer" block of LaxPacketHeaders::add_ip against
       LaxSlicedPacketCursor::slice_transport (headers, payload windows, incomplete
       flag, stop error incl. offset and length source);
     - IPv4 (+ authentication header): the IPv4 arm of IpHeaders::from_slice_lax against
       the IPv4 arm of LaxIpSlice::from_slice (three-way total length fall-back,
       incomplete flag, stop error). *)
From Coq Require Import ZArith Lia ZifyN ZifyBool.
From EP Require Import Base.Bytes Parse.Types Parse.Slices Parse.Cursor Parse.View
  Parse.WireSpec Parse.Repr Parse.StrictProofs Parse.LaxSlices Parse.LaxCursor Parse.LaxView
  Parse.HdrModel Parse.HdrView Parse.HdrCut Parse.HdrProofs Parse.HdrLaxModel Parse.HdrLaxView.
Import LaxSlicedPacketCursor.

Local Open Scope N_scope.

Lemma icmp4_err_src s l : Icmpv4Slice.from_slice s = Err (ELen l) -> le_src l = LsSlice.
Proof.
  unfold Icmpv4Slice.from_slice, lerr.
  destruct (s_len s <? 8) eqn:E8; [intros H; injection H as <-; reflexivity|].
  rdok s 0. rdok s 1.
  destruct ((v =? 13) && (0 =? v0) && negb (20 =? s_len s)); [intros H; injection H as <-; reflexivity|].
  destruct ((v =? 14) && (0 =? v0) && negb (20 =? s_len s)); [intros H; injection H as <-; reflexivity|].
  discriminate.
Qed.

Lemma icmp4_no_content s ce : Icmpv4Slice.from_slice s <> Err (EContent ce).
Proof.
  unfold Icmpv4Slice.from_slice, lerr.
  destruct (s_len s <? 8) eqn:E8; [discriminate|].
  rdok s 0. rdok s 1.
  destruct ((v =? 13) && (0 =? v0) && negb (20 =? s_len s)); [discriminate|].
  destruct ((v =? 14) && (0 =? v0) && negb (20 =? s_len s)); discriminate.
Qed.

Lemma icmp6_err_src s l : Icmpv6Slice.from_slice s = Err (ELen l) -> le_src l = LsSlice.
Proof.
  unfold Icmpv6Slice.from_slice, lerr.
  destruct (s_len s <? 8); [intros H; injection H as <-; reflexivity|].
  destruct (Icmpv6Slice.MAX_LEN <? s_len s); [intros H; injection H as <-; reflexivity|discriminate].
Qed.

Lemma udp_lax_shape s :
  match UdpSlice.from_slice_lax s with
  | Ok u => 8 <= s_len u
  | Err (ELen l) => le_src l = LsSlice
  | Err (EContent _) => False
  | Bug _ => False
  end.
Proof.
  unfold UdpSlice.from_slice_lax, UdpSlice.header_from_slice, UdpSlice.length, lerr.
  destruct (s_len s <? 8) eqn:E8; [reflexivity|].
  rewrite subU_eq by lia. cbn [bind].
  destruct (rd16_ok (fst s + 0, take 8 (drop 0 (snd s))) 4) as (l & El).
  { rewrite s_len_sub by lia. lia. }
  rewrite El. cbn [bind].
  destruct ((s_len s <? l) || (l <? 8)) eqn:E9; [lia|].
  rewrite subU_eq by lia. rewrite s_len_sub by lia. lia.
Qed.

Lemma fix_len_eq p off e : le_src e = LsSlice ->
  LaxPacketHeaders.add_len_source p off e = ELen (fix_len e off (lipp_src p)).
Proof.
  intros H. unfold LaxPacketHeaders.add_len_source, fix_len. destruct e as [r l sr ly o].
  cbn in H. subst sr. reflexivity.
Qed.

Definition ltr_rel (self1 : lhpacket) (p : lax_ip_payload) (c : lax_cursor)
  (h : res lhpacket) (s : res lax_sliced_packet) : Prop :=
  match h, s with
  | Ok r, Ok sp =>
      lh_link r = lh_link self1 /\ lh_exts r = lh_exts self1 /\ lh_net r = lh_net self1 /\
      lsp_link sp = lsp_link (lc_result c) /\ lsp_exts sp = lsp_exts (lc_result c) /\
      lsp_net sp = lsp_net (lc_result c) /\
      match lsp_transport sp with
      | Some ts =>
          exists t, lh_transport r = Some t /\
            lconv_tr (lipp_incomplete p) ts = Ok (hview_tr t, lhview_payload (lh_payload r)) /\
            lh_stop r = lh_stop self1 /\ lsp_stop_err sp = None
      | None =>
          lh_transport r = lh_transport self1 /\ lh_payload r = lh_payload self1 /\
          match lsp_stop_err sp with
          | Some e => lh_stop r = Some e
          | None => lh_stop r = lh_stop self1
          end
      end
  | _, _ => False
  end.

Ltac ltr_ok :=
  unfold ltr_rel, LaxPacketHeaders.with_transport, with_transport;
  cbn [lh_link lh_exts lh_net lh_transport lh_payload lh_stop lsp_link lsp_exts lsp_net lsp_transport
       lsp_stop_err fst snd];
  repeat (split; [reflexivity|]); eexists; (split; [reflexivity|]);
  cbn [lconv_tr hview_tr lhview_payload].

Ltac ltr_stop Hstop :=
  unfold ltr_rel, LaxPacketHeaders.with_stop, with_stop;
  cbn [lh_link lh_exts lh_net lh_transport lh_payload lh_stop lsp_link lsp_exts lsp_net lsp_transport
       lsp_stop_err];
  rewrite ?Hstop; repeat (split; [reflexivity|]).

Lemma lax_transport_agree self1 p c :
  has_stop (lc_result c) = false -> lsp_transport (lc_result c) = None ->
  ltr_rel self1 p c (LaxPacketHeaders.add_transport self1 p (lc_offset c)) (slice_transport c p).
Proof.
  intros Hstop Hnone. unfold LaxPacketHeaders.add_transport, slice_transport. rewrite Hstop, Bool.orb_false_r.
  assert (Hs : lsp_stop_err (lc_result c) = None).
  { unfold has_stop in Hstop. destruct (lsp_stop_err (lc_result c)); [discriminate|reflexivity]. }
  assert (Stay : ltr_rel self1 p c (Ok self1) (Ok (lc_result c))).
  { unfold ltr_rel. rewrite Hnone, Hs. repeat split. }
  destruct (lipp_fragmented p); [exact Stay|].
  destruct (lipp_number p =? IPN_ICMP) eqn:E1.
  { pose proof (icmp4_shape (lipp_slice p)) as Sh. pose proof (icmp4_err_src (lipp_slice p)) as Se.
    destruct (Icmpv4Slice.from_slice (lipp_slice p)) as [r|[l|ce]|b] eqn:Ei; try contradiction.
    - destruct Sh as (-> & hl & Ehl & H8 & Hl).
      unfold Icmpv4Acc.header, Icmpv4Acc.payload. rewrite Ehl. cbn [bind].
      rewrite subU_eq by lia. rewrite subN_ok by lia. cbn [bind]. rewrite subU_eq by lia. cbn [bind].
      ltr_ok. rewrite Ehl. cbn [bind].
      rewrite ?win_take by lia. rewrite ?win_sub by lia.
      unfold s_off. rewrite N.add_0_r. rewrite Hs. repeat split.
    - rewrite (fix_len_eq p _ l (Se l eq_refl)). ltr_stop Hnone. reflexivity.
    - now destruct (icmp4_no_content (lipp_slice p) ce Ei). }
  destruct (lipp_number p =? IPN_ICMPV6) eqn:E4.
  { assert (E2 : (lipp_number p =? IPN_UDP) = false).
    { apply N.eqb_eq in E4. rewrite E4. reflexivity. }
    assert (E3 : (lipp_number p =? IPN_TCP) = false).
    { apply N.eqb_eq in E4. rewrite E4. reflexivity. }
    rewrite E2, E3.
    pose proof (icmp6_err_src (lipp_slice p)) as Se.
    unfold Icmpv6Slice.from_slice, Icmpv6Slice.MAX_LEN in *.
    destruct (s_len (lipp_slice p) <? 8) eqn:E8.
    { unfold lerr in *. rewrite (fix_len_eq p _ _ (Se _ eq_refl)). ltr_stop Hnone. reflexivity. }
    destruct (4294967295 <? s_len (lipp_slice p)) eqn:Em.
    { unfold lerr in *. rewrite (fix_len_eq p _ _ (Se _ eq_refl)). ltr_stop Hnone. reflexivity. }
    unfold Icmpv6Acc.header, Icmpv6Acc.payload.
    rewrite subU_eq by lia. rewrite subN_ok by lia. cbn [bind]. rewrite subU_eq by lia. cbn [bind].
    ltr_ok.
    rewrite ?win_take by lia. rewrite ?win_sub by lia.
    unfold s_off. rewrite N.add_0_r. rewrite Hs. repeat split. }
  destruct (lipp_number p =? IPN_UDP) eqn:E2.
  { pose proof (udp_lax_shape (lipp_slice p)) as Sh.
    destruct (UdpSlice.from_slice_lax (lipp_slice p)) as [u|[l|ce]|b]; try contradiction.
    - unfold UdpAcc.to_header, UdpAcc.payload.
      rewrite subU_eq by lia. rewrite subN_ok by lia. cbn [bind]. rewrite subU_eq by lia. cbn [bind].
      ltr_ok.
      rewrite ?win_take by lia. rewrite ?win_sub by lia.
      unfold s_off. rewrite N.add_0_r. rewrite Hs. repeat split.
    - rewrite (fix_len_eq p _ l Sh). ltr_stop Hnone. reflexivity. }
  destruct (lipp_number p =? IPN_TCP) eqn:E3; [|exact Stay].
  unfold TcpHeader.from_slice, TcpHeaderSlice.from_slice, TcpSlice.from_slice.
  set (s := lipp_slice p).
  destruct (s_len s <? 20) eqn:E20.
  { unfold lerr. cbn [bind]. rewrite fix_len_eq by reflexivity. ltr_stop Hnone. reflexivity. }
  rdok s 12.
  set (hl := N.shiftr (N.land v 240) 2).
  destruct (hl <? 20) eqn:Eh.
  { cbn [bind]. ltr_stop Hnone. reflexivity. }
  destruct (s_len s <? hl) eqn:El.
  { unfold lerr. cbn [bind]. rewrite fix_len_eq by reflexivity. ltr_stop Hnone. reflexivity. }
  rewrite subU_eq by lia. cbn [bind].
  rewrite s_len_sub by lia. rewrite idx_from_eq by lia. cbn [bind fst snd].
  ltr_ok.
  rewrite ?win_take by lia. rewrite ?win_sub by lia. rewrite win_drop.
  unfold s_off. rewrite N.add_0_r. rewrite Hs. repeat split.
Qed.

Definition lip4_rel (s : slice) (h : res (ip_headers * lax_ip_payload * option stop_error))
  (r : res (lax_ip_slice * option stop_error)) : Prop :=
  match h, r with
  | Ok (ih, p, st), Ok (i, st') =>
      exists v, i = LIpV4 v /\ ih = IhV4 (lv4_header v) (lv4_auth v) /\ p = lv4_payload v /\
        st = option_map (conv_ext_stop true (fun l => l)) st' /\
        s_off s <= s_off (lipp_slice p) /\
        (forall l ly, st = Some (ELen l, ly) -> le_src l = lipp_src p)
  | Err e, Err e' => e = e'
  | _, _ => False
  end.

Lemma auth_content s c : IpAuthHeaderSlice.from_slice s = Err (EContent c) -> c = CeAuthZeroPayloadLen.
Proof.
  unfold IpAuthHeaderSlice.from_slice, lerr.
  destruct (s_len s <? 12) eqn:E; [discriminate|].
  rdok s 1.
  destruct (v <? 1); [intros H; injection H as <-; reflexivity|].
  destruct (s_len s <? (v + 2) * 4) eqn:El; [discriminate|].
  rewrite subU_eq by lia. discriminate.
Qed.

Lemma lax_v4_tail s header hl hp src inc :
  bytes_ok (snd hp) -> 20 <= s_len header -> s_len header = hl -> s_off s <= s_off hp ->
  lip4_rel s
    (let* proto := Ipv4HeaderSlice.protocol header in
     let* x := LaxIpv4Extensions.from_slice_lax proto hp in
     let '(auth, next_protocol, rest', stop) := x in
     let stop' :=
       match stop with
       | Some (ELen l) => Some (ELen (le_set_src (le_add_offset l hl) src), LyIpAuthHeader)
       | Some (EContent c) => Some (EContent c, LyIpAuthHeader)
       | None => None
       end in
     let* fragmented := Ipv4HeaderSlice.is_fragmenting_payload header in
     Ok (IhV4 header auth, mkLaxIpp inc next_protocol fragmented src rest', stop'))
    (let* r := LaxIpv4Slice.finish header hp src inc in
     let '(v, stop) := r in
     Ok (LIpV4 v,
         match stop with
         | Some (ELen l) => Some (ELen l, LyIpAuthHeader)
         | Some (EContent _) => Some (EContent CeIpv6AuthZeroPayloadLen, LyIpAuthHeader)
         | None => None
         end)).
Proof.
  intros Hok H20 Hhl Hs. unfold LaxIpv4Slice.finish, LaxIpv4Extensions.from_slice_lax, LaxIpv4Exts.from_slice_lax.
  destruct (v4_accessors header H20) as ((fr & Efr) & (pr & Epr) & _).
  rewrite Efr, Epr. cbn [bind]. rewrite (N.eqb_sym IPN_AUTH pr).
  destruct (pr =? IPN_AUTH) eqn:Ea.
  - pose proof (auth_shape hp Hok) as Sh. pose proof (auth_content hp) as Sc.
    destruct (IpAuthHeaderSlice.from_slice hp) as [a|[l|ce]|b]; cbn [bind]; try contradiction.
    + destruct Sh as (A12 & Ale & Aoff & Ath & _).
      rewrite subN_ok by lia. cbn [bind]. rewrite subU_rest by lia. cbn [bind].
      unfold IpAuthHeaderSlice.next_header. rdok a 0. rewrite Ath. cbn [bind]. rewrite ?Efr. cbn [bind].
      unfold lip4_rel. eexists. split; [reflexivity|]. cbn [lv4_header lv4_auth lv4_payload option_map lipp_slice lipp_src].
      split; [reflexivity|]. split; [reflexivity|]. split; [reflexivity|].
      split; [unfold s_off in *; cbn [fst]; lia|]. intros; discriminate.
    + rewrite ?Efr. cbn [bind]. unfold lip4_rel. eexists. split; [reflexivity|].
      cbn [lv4_header lv4_auth lv4_payload option_map conv_ext_stop lipp_slice lipp_src].
      apply N.eqb_eq in Ea. subst pr. split; [reflexivity|]. split; [reflexivity|].
      subst hl. destruct l as [r ln sr ly o]. split; [reflexivity|]. split; [exact Hs|].
      intros l' ly' E. injection E as <- _. reflexivity.
    + rewrite ?Efr. cbn [bind]. unfold lip4_rel. eexists. split; [reflexivity|].
      cbn [lv4_header lv4_auth lv4_payload option_map conv_ext_stop lipp_slice lipp_src].
      apply N.eqb_eq in Ea. subst pr. rewrite (Sc ce eq_refl).
      split; [reflexivity|]. split; [reflexivity|]. split; [reflexivity|]. split; [exact Hs|].
      intros; discriminate.
  - cbn [bind]. rewrite ?Efr. cbn [bind]. unfold lip4_rel. eexists. split; [reflexivity|].
    cbn [lv4_header lv4_auth lv4_payload option_map lipp_slice lipp_src].
    split; [reflexivity|]. split; [reflexivity|]. split; [reflexivity|]. split; [exact Hs|].
    intros; discriminate.
Qed.

Lemma lax_ip4_agree s b0 :
  bytes_ok (snd s) -> rd (snd s) 0 = Some b0 -> N.shiftr b0 4 = 4 -> 20 <= s_len s ->
  lip4_rel s (LaxIpHeaders.from_slice_lax s) (LaxIpSlice.from_slice s).
Proof.
  intros Hok Eb V4 H20. unfold LaxIpHeaders.from_slice_lax, LaxIpSlice.from_slice.
  destruct (s_len s =? 0) eqn:E0; [lia|].
  unfold rdU. rewrite Eb. cbn [bind]. rewrite V4. change (4 =? 4) with true. cbn iota.
  destruct (s_len s <? 20) eqn:E20; [lia|].
  destruct (N.land b0 15 <? 5) eqn:Ei; [reflexivity|].
  set (hl := N.land b0 15 * 4) in *.
  destruct (s_len s <? hl) eqn:El; [reflexivity|].
  rewrite subU_eq by lia. cbn [bind].
  set (header := (fst s + 0, take hl (drop 0 (snd s)))).
  assert (Hh : s_len header = hl) by (apply s_len_sub; lia).
  assert (Hh20 : 20 <= s_len header) by lia.
  destruct (v4_accessors header Hh20) as (_ & _ & (tl & Etl)). rewrite Etl. cbn [bind].
  unfold LaxIpv4Slice.select_payload.
  assert (Hsub : forall k n, k + n <= s_len s -> bytes_ok (snd (fst s + k, take n (drop k (snd s))))).
  { intros k n _. now apply bytes_ok_window. }
  destruct (tl <? hl) eqn:Et.
  { rewrite subN_ok by lia. cbn [bind]. rewrite subU_eq by lia. cbn [bind].
    apply lax_v4_tail; auto; [apply Hsub; lia|unfold s_off; cbn [fst]; lia]. }
  destruct (s_len s <? tl) eqn:Es.
  { rewrite subN_ok by lia. cbn [bind]. rewrite subU_eq by lia. cbn [bind].
    apply lax_v4_tail; auto; [apply Hsub; lia|unfold s_off; cbn [fst]; lia]. }
  rewrite subN_ok by lia. cbn [bind]. rewrite subU_eq by lia. cbn [bind].
  apply lax_v4_tail; auto; [apply Hsub; lia|unfold s_off; cbn [fst]; lia].
Qed.

Definition lax_ip4_packet_rel (h : res lhpacket) (s : res lax_sliced_packet) : Prop :=
  match h, s with
  | Ok r, Ok sp =>
      lh_link r = None /\ lsp_link sp = None /\ lh_exts r = [] /\ lsp_exts sp = [] /\
      lh_stop r = lsp_stop_err sp /\
      exists v, lsp_net sp = Some (LNtIpv4 v) /\
        lh_net r = Some (HnIp (IhV4 (lv4_header v) (lv4_auth v))) /\
        match lsp_transport sp with
        | Some ts =>
            exists t, lh_transport r = Some t /\
              lconv_tr (lipp_incomplete (lv4_payload v)) ts = Ok (hview_tr t, lhview_payload (lh_payload r))
        | None => lh_transport r = None /\ lh_payload r = LHpIp (lv4_payload v)
        end
  | Err e, Err e' => e = e'
  | _, _ => False
  end.

Theorem lax_from_ip4_agree bs b0 :
  bytes_ok bs -> rd bs 0 = Some b0 -> N.shiftr b0 4 = 4 -> 20 <= len bs ->
  lax_ip4_packet_rel (LaxPacketHeaders.from_ip bs) (LaxSlicedPacket.from_ip bs).
Proof.
  intros Hok Eb V4 H20.
  unfold LaxPacketHeaders.from_ip, LaxPacketHeaders.add_ip, LaxSlicedPacket.from_ip, parse_from_ip.
  set (s := mk_slice bs).
  pose proof (lax_ip4_agree s b0 Hok Eb V4 H20) as A. unfold lip4_rel in A.
  destruct (LaxIpHeaders.from_slice_lax s) as [[[ih p] st]|e|b];
    destruct (LaxIpSlice.from_slice s) as [[i st']|e'|b']; try contradiction; cbn [bind]; [|exact A].
  destruct A as (v & -> & -> & -> & -> & Hoff & Hsrc).
  cbn [LaxIpSlice.payload net_of_ip is_v4 lh_link lh_exts lh_transport lh_stop]. unfold ptr_diff. rewrite subN_ok by lia. cbn [bind].
  destruct st' as [e|]; cbn [option_map].
  - (* stopped in the authentication header *)
    unfold slice_transport, has_stop. cbn [lc_result lsp_stop_err]. rewrite Bool.orb_true_r.
    unfold lax_ip4_packet_rel, LaxPacketHeaders.with_stop.
    cbn [lh_link lh_exts lh_net lh_transport lh_payload lh_stop lsp_link lsp_exts lsp_net lsp_transport lsp_stop_err].
    repeat (split; [reflexivity|]). split.
    + unfold LaxPacketHeaders.ip_stop.
      destruct (conv_ext_stop true (fun l => l) e) as [[l|c] ly] eqn:Ec; cbn [fst snd]; [|reflexivity].
      cbn [option_map] in Hsrc. rewrite Ec in Hsrc. specialize (Hsrc l ly eq_refl). destruct l as [r ln sr y o]. cbn in Hsrc. subst sr.
      unfold le_add_offset, le_set_src. cbn. now rewrite N.add_0_r.
    + eexists. split; [reflexivity|]. repeat split.
  - rewrite N.add_0_l.
    set (self1 := mkLH None [] (Some (HnIp (IhV4 (lv4_header v) (lv4_auth v)))) None (LHpIp (lv4_payload v)) None).
    set (c := mkLaxCursor (s_off (lipp_slice (lv4_payload v)) - s_off s) LsSlice
                (mkLaxSliced None [] (Some (LNtIpv4 v)) None None)).
    pose proof (lax_transport_agree self1 (lv4_payload v) c eq_refl eq_refl) as T.
    cbn [lc_offset c] in T. unfold ltr_rel in T.
    destruct (LaxPacketHeaders.add_transport self1 (lv4_payload v) _) as [r|e|b];
      destruct (slice_transport c (lv4_payload v)) as [sp|e'|b']; try contradiction.
    destruct T as (T1 & T2 & T3 & T4 & T5 & T6 & T7).
    unfold lax_ip4_packet_rel. rewrite T1, T2, T3, T4, T5, T6.
    cbn [self1 c lc_result lh_link lh_exts lh_net lsp_link lsp_exts lsp_net].
    repeat (split; [reflexivity|]).
    destruct (lsp_transport sp) as [ts|].
    + destruct T7 as (t & E1 & E2 & E3 & E4). split; [rewrite E3, E4; reflexivity|].
      eexists. split; [reflexivity|]. split; [reflexivity|]. eexists. split; [exact E1|exact E2].
    + destruct T7 as (E1 & E2 & E3). split.
      * destruct (lsp_stop_err sp); [exact E3|rewrite E3; reflexivity].
      * eexists. split; [reflexivity|]. split; [reflexivity|]. split; [exact E1|exact E2].
Qed.
