(* Parse/HdrVal.v -- the header VALUES of a PacketHeaders result and of a slicing result:
   what `to_header()` / `to_packet()` / `header()` (accessor models of Parse/Access.v) return
   for every header (`hvals`), and the predicate under which they are compared: every slice
   stored in a PacketHeaders model result is a window of the input (`in_buf`, the predicate
   the slicing family uses; `in_win` is its arithmetic reading).  The theorems are in
   Parse/HdrValStruct.v (struct side), Parse/HdrValProofs.v and Parse/HdrValExts.v. *)
From Coq Require Import ZArith Lia ZifyN ZifyBool List.
From EP Require Import Base.Bytes Parse.Types Parse.Slices Parse.Cursor Parse.Repr
  Parse.Access Parse.AccessProofs Parse.ProvFacts Parse.HdrModel Parse.HdrView Parse.HdrCut Parse.HdrSlots.
Import ListNotations.
Import SlicedPacketCursor.

Local Open Scope N_scope.

Definition in_win (bs : bytes) (s : slice) : Prop :=
  s_off s + s_len s <= len bs /\ snd s = take (s_len s) (drop (s_off s) bs).

Lemma in_buf_in_win bs s : in_buf bs s -> in_win bs s.
Proof. exact (in_buf_window bs s). Qed.

Lemma in_win_in_buf bs s : in_win bs s -> in_buf bs s.
Proof.
  intros (L & E). exists (s_off s), (s_off s + s_len s). split; [|lia].
  rewrite N.add_comm, N.add_sub, <- E. now destruct s.
Qed.

(* two windows of the same buffer with the same position are the same slice *)
Lemma in_buf_win_eq bs a b : in_buf bs a -> in_buf bs b -> win_of a = win_of b -> a = b.
Proof.
  intros Ia Ib W. apply in_buf_in_win in Ia. apply in_buf_in_win in Ib.
  destruct Ia as (_ & Ea), Ib as (_ & Eb). unfold win_of in W. injection W as Wo Wl.
  destruct a as (oa, ba), b as (ob, bb). unfold s_off, s_len in *. cbn [fst snd] in *.
  subst oa. rewrite Ea, Eb. now rewrite Wl.
Qed.

(* a window that starts where another one starts and is not longer is its prefix *)
Lemma in_buf_pre bs h s n :
  in_buf bs h -> in_buf bs s -> s_off h = s_off s -> s_len h = n -> n <= s_len s -> pre n h s.
Proof.
  intros Ih Is Ho Hl Hn. apply in_buf_in_win in Ih. apply in_buf_in_win in Is.
  destruct Ih as (_ & Eh), Is as (_ & Es). unfold pre. split; [exact Ho|]. split; [|exact Hn].
  rewrite Eh, Es, Hl, Ho. unfold take. rewrite firstn_firstn. f_equal. lia.
Qed.

Definition olist {A} (o : option A) : list A := match o with Some a => [a] | None => [] end.

Definition exts6_slices (x : exts6) : list slice :=
  olist (x_hbh x) ++ olist (x_dest x) ++ olist (x_route x) ++ olist (x_fdest x) ++
  olist (x_frag x) ++ olist (x_auth x).

Definition hext_slice (x : hlink_ext) : slice :=
  match x with HxVlan h | HxMacsec h => h end.

Definition hnet_slices (n : hnet) : list slice :=
  match n with
  | HnArp a => [a]
  | HnIp (IhV4 h a) => h :: olist a
  | HnIp (IhV6 h x) => h :: exts6_slices x
  end.

Definition htr_slice (t : htransport) : slice :=
  match t with HtUdp h | HtTcp h | HtIcmpv4 h | HtIcmpv6 h => h end.

Definition hpayload_slices (p : hpayload) : list slice :=
  match p with
  | HpEmpty => []
  | HpEther e => [ep_slice e]
  | HpMacsecMod s => [s]
  | HpIp i => [ipp_slice i]
  | HpUdp s | HpTcp s | HpIcmpv4 s | HpIcmpv6 s => [s]
  end.

(* all header slices of a result, then its payload slice *)
Definition hp_header_slices (p : hpacket) : list slice :=
  olist (h_link p) ++ map hext_slice (h_exts p) ++
  match h_net p with Some n => hnet_slices n | None => [] end ++
  olist (option_map htr_slice (h_transport p)).

Definition hp_slices (p : hpacket) : list slice :=
  hp_header_slices p ++ hpayload_slices (h_payload p).

(* the struct Ipv6Extensions of a result is what Ipv6Extensions::from_slice returns for the
   header's next_header on a window of the input directly behind the 40 byte header *)
Definition ih_prov (bs : bytes) (ih : ip_headers) : Prop :=
  match ih with
  | IhV4 _ _ => True
  | IhV6 hd x =>
      exists nh0 hp0 nh' r, in_buf bs hp0 /\ rdU hd 6 = Ok nh0 /\ s_off hp0 = s_off hd + 40 /\
        Ipv6Extensions.from_slice nh0 hp0 = Ok (x, nh', r)
  end.

Definition hnet_ok (bs : bytes) (n : hnet) : Prop :=
  Forall (in_buf bs) (hnet_slices n) /\ match n with HnIp ih => ih_prov bs ih | HnArp _ => True end.

Definition htr_ok (bs : bytes) (t : htransport) : Prop :=
  in_buf bs (htr_slice t) /\ match t with HtTcp h => wf_tcph h | _ => True end.

(* the structured form the proofs use: in addition the Ethernet II header slice has 14 bytes
   and the TCP header slice has the length its data offset announces (established by
   Ethernet2HeaderSlice::from_slice / TcpHeaderSlice::from_slice) *)
Definition hp_ok (bs : bytes) (p : hpacket) : Prop :=
  optP (fun h => in_buf bs h /\ s_len h = 14) (h_link p) /\
  Forall (fun x => in_buf bs (hext_slice x)) (h_exts p) /\
  optP (hnet_ok bs) (h_net p) /\
  optP (htr_ok bs) (h_transport p) /\
  Forall (in_buf bs) (hpayload_slices (h_payload p)).

Definition eth_val := (bytes * bytes * N)%type.
Definition vlan_val := (N * bool * N * N)%type.
Definition macsec_val := (macsec_ptype * bool * bool * N * N * N * option bytes)%type.
Definition ipv4_val := (N * N * N * N * bool * bool * N * N * N * N * bytes * bytes * bytes)%type.
Definition auth_val := (N * N * N * N * bytes)%type.
Definition ipv6_val := (N * N * N * N * N * bytes * bytes)%type.
Definition arp_val := (N * N * N * bytes * bytes * bytes * bytes)%type.
Definition udp_val := (N * N * N * N)%type.
Definition tcp_val := ((N * N * N * N * list bool * N * N * N) * (N * bytes))%type.
Definition icmp4_val := (icmpv4_type * N)%type.
Definition icmp6_val := (N * N * bytes * N)%type.
Definition raw_val := (N * N * bytes)%type.
Definition frag_val := (N * N * bool * N)%type.

Inductive ext_val := EvVlan (v : res vlan_val) | EvMacsec (v : res macsec_val).

Inductive net_val :=
| NvIpv4 (h : res ipv4_val) (a : option (res auth_val))
| NvIpv6 (h : res ipv6_val)
| NvArp (p : res arp_val).

Inductive tr_val :=
| TvUdp (v : res udp_val) | TvTcp (v : res tcp_val)
| TvIcmpv4 (v : res icmp4_val) | TvIcmpv6 (v : res icmp6_val).

Record hvals := mkVals {
  vl_link : option (res eth_val);
  vl_exts : list ext_val;
  vl_net : option net_val;
  vl_tr : option tr_val }.

(* struct family: Ethernet2HeaderSlice / SingleVlanHeaderSlice / MacsecHeaderSlice /
   Ipv4HeaderSlice / IpAuthHeaderSlice / Ipv6HeaderSlice / TcpHeaderSlice ::to_header(),
   ArpPacketSlice::to_packet(), UdpSlice::to_header(), Icmpv4Slice / Icmpv6Slice ::header()
   applied to the slice the struct was decoded from (the struct decoders of the crate are
   `XSlice::from_slice(..)?.to_header()`) *)
Definition hval_ext (x : hlink_ext) : ext_val :=
  match x with
  | HxVlan h => EvVlan (SingleVlanA.to_header h)
  | HxMacsec h => EvMacsec (MacsecHeaderA.to_header h)
  end.

Definition hval_net (n : hnet) : net_val :=
  match n with
  | HnArp a => NvArp (ArpPacketA.to_packet a)
  | HnIp (IhV4 h a) => NvIpv4 (Ipv4HeaderA.to_header h) (option_map IpAuthHeaderA.to_header a)
  | HnIp (IhV6 h _) => NvIpv6 (Ipv6HeaderA.to_header h)
  end.

Definition hval_tr (t : htransport) : tr_val :=
  match t with
  | HtUdp h => TvUdp (UdpA.to_header h)
  | HtTcp h => TvTcp (TcpHeaderSliceA.to_header h)
  | HtIcmpv4 h => TvIcmpv4 (Icmpv4A.header h)
  | HtIcmpv6 h => TvIcmpv6 (Icmpv6A.header h)
  end.

Definition hvals_of_h (p : hpacket) : hvals :=
  mkVals (option_map (fun h => Ethernet2A.to_header (mkEth2 0 h)) (h_link p))
         (map hval_ext (h_exts p)) (option_map hval_net (h_net p))
         (option_map hval_tr (h_transport p)).

(* slicing family: to_header() / to_packet() / header() of every slice of the result *)
Definition sval_link (l : link_slice) : option (res eth_val) :=
  match l with
  | LkEthernet2 s => Some (Ethernet2A.to_header (mkEth2 0 s))
  | _ => None
  end.

Definition sval_ext (x : link_ext_slice) : ext_val :=
  match x with
  | LeVlan s => EvVlan (SingleVlanA.to_header s)
  | LeMacsec m => EvMacsec (MacsecHeaderA.to_header (ms_header m))
  end.

Definition sval_net (n : net_slice) : net_val :=
  match n with
  | NtIpv4 v => NvIpv4 (Ipv4HeaderA.to_header (v4_header v))
                       (option_map IpAuthHeaderA.to_header (v4_auth v))
  | NtIpv6 v => NvIpv6 (Ipv6HeaderA.to_header (v6_header v))
  | NtArp a => NvArp (ArpPacketA.to_packet a)
  end.

Definition sval_tr (t : transport_slice) : tr_val :=
  match t with
  | TrUdp s => TvUdp (UdpA.to_header s)
  | TrTcp hl s => TvTcp (TcpSliceA.to_header (hl, s))
  | TrIcmpv4 s => TvIcmpv4 (Icmpv4A.header s)
  | TrIcmpv6 s => TvIcmpv6 (Icmpv6A.header s)
  end.

Definition hvals_of_s (p : sliced_packet) : hvals :=
  mkVals (match sp_link p with Some l => sval_link l | None => None end)
         (map sval_ext (sp_exts p)) (option_map sval_net (sp_net p))
         (option_map sval_tr (sp_transport p)).

(* the six slots of the struct Ipv6Extensions, converted *)
Record exts6_vals := mkX6v {
  xv_hbh : option (res raw_val); xv_dest : option (res raw_val); xv_route : option (res raw_val);
  xv_fdest : option (res raw_val); xv_frag : option (res frag_val); xv_auth : option (res auth_val) }.

Definition exts6_val (x : exts6) : exts6_vals :=
  mkX6v (option_map Ipv6RawExtHeaderA.to_header (x_hbh x))
        (option_map Ipv6RawExtHeaderA.to_header (x_dest x))
        (option_map Ipv6RawExtHeaderA.to_header (x_route x))
        (option_map Ipv6RawExtHeaderA.to_header (x_fdest x))
        (option_map Ipv6FragmentHeaderA.to_header (x_frag x))
        (option_map IpAuthHeaderA.to_header (x_auth x)).

(* what the theorems say about a pair of results *)
Definition vals_agree (h : res hpacket) (s : res sliced_packet) : Prop :=
  forall hp sp, h = Ok hp -> s = Ok sp -> hvals_of_h hp = hvals_of_s sp.

Definition slices_hold (bs : bytes) (h : res hpacket) : Prop :=
  forall hp, h = Ok hp -> Forall (in_win bs) (hp_slices hp).
