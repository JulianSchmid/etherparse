(* Parse/LaxHdrSll.v -- (C01 / C02) LaxPacketHeaders::from_linux_sll never reaches Bug.

   Pure composition, no new model: Equiv/SllStart.v `sll_start_laxheaders` (no hypothesis) writes
   LaxPacketHeaders::from_linux_sll bs as an Err, a literal Ok, or `lh_behind 16` of
   LaxPacketHeaders::from_ether_type et (drop 16 bs) -- `lh_behind` maps Bug to Bug and nothing
   else to Bug --, and Parse/HdrLaxProofs3.v `lax_hdr_never_bug` (C04_lax_headers_never_bug)
   excludes Bug for from_ether_type on every byte string of bytes. *)
From EP Require Import Base.Bytes Parse.Types Parse.Slices Parse.HdrLaxModel Equiv.HdrLaxShift Equiv.SllStart.
From EP Require Parse.HdrLaxProofs3.

Local Open Scope N_scope.

Theorem lax_headers_from_linux_sll_never_bug bs b :
  bytes_ok bs -> LaxPacketHeaders.from_linux_sll bs <> Bug b.
Proof.
  intros Hok. pose proof (sll_start_laxheaders bs) as H.
  destruct (sll_head bs) as [|c|pt|et]; try (rewrite H; discriminate).
  rewrite H.
  destruct (HdrLaxProofs3.lax_hdr_never_bug (drop 16 bs) et b (bytes_ok_drop 16 bs Hok)) as ((_ & N & _) & _).
  unfold lh_behind.
  destruct (LaxPacketHeaders.from_ether_type et (drop 16 bs)) as [q|e|b']; [discriminate|discriminate|exact N].
Qed.

(* totality reading: Ok or Err *)
Theorem lax_headers_from_linux_sll_total bs :
  bytes_ok bs ->
  (exists p, LaxPacketHeaders.from_linux_sll bs = Ok p) \/ (exists e, LaxPacketHeaders.from_linux_sll bs = Err e).
Proof.
  intros Hok. pose proof (lax_headers_from_linux_sll_never_bug bs) as N.
  destruct (LaxPacketHeaders.from_linux_sll bs) as [p|e|b]; [left; eauto|right; eauto|].
  exfalso. now apply (N b Hok).
Qed.
