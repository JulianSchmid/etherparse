(* Parse/HdrSlots.v -- property C04: the SLOTS of the struct Ipv6Extensions, one by one,
   against the extension headers the slicing result yields.

   The view of HdrView.v observes the struct `Ipv6Extensions` only as (first next-header,
   fragmentation flag, SUM of the slot lengths).  Here:

     slot / slot_get     the six places of the struct (hop-by-hop, destination options,
                         routing, final destination options, fragment, authentication)
     keyed routed l      the slot each header of a chain l (in wire order) belongs to, by
                         the documented rule of Ipv6Extensions::from_slice: a header goes to
                         the slot of its kind; destination options go to the first slot
                         before a routing header was met and to the "final destination
                         options" slot behind one
     slots_hold x l      no two headers of l belong to the same slot, and slot k of x holds
                         the slice s  <->  (k, s) is in the keyed chain: every filled slot is
                         one header of the chain, every header of the chain sits in its slot,
                         everything else is empty
     chain W k nh l k' nh'   l are consecutive pieces of the slice W starting at relative
                         offset k and ending at k': the piece is `subU W k (its length)`, it is
                         a well formed header (length as announced by its own bytes) OF THE
                         KIND nh ANNOUNCED IN FRONT OF IT (the IPv6 header's next_header for
                         the first, octet 0 of the previous header after that), the last one
                         announces nh' *)
From Coq Require Import ZArith Lia ZifyN ZifyBool List.
From EP Require Import Base.Bytes Base.Lists Parse.Types Parse.Slices Parse.Cursor Parse.View
  Parse.WireSpec Parse.Repr Parse.StrictProofs Parse.Access
  Parse.HdrModel Parse.HdrView Parse.HdrCut Parse.HdrProofs Parse.HdrProofs2.
From EP Require Import Parse.AccessProofs.
Import ListNotations.
Import SlicedPacketCursor.
Import Ipv6ExtIterA.

Local Open Scope N_scope.

Inductive slot := SHbh | SDest | SRoute | SFdest | SFrag | SAuth.

Definition slot_get (x : exts6) (k : slot) : option slice :=
  match k with
  | SHbh => x_hbh x | SDest => x_dest x | SRoute => x_route x
  | SFdest => x_fdest x | SFrag => x_frag x | SAuth => x_auth x
  end.

Definition slot_eq_dec (a b : slot) : {a = b} + {a <> b}.
Proof. decide equality. Defined.

(* the IP number that announces a header of this kind *)
Definition item_kind (it : ext_item) : N :=
  match it with
  | XHopByHop _ => IPN_HOP_BY_HOP
  | XRouting _ => IPN_ROUTE
  | XFragment _ => IPN_FRAG
  | XDestinationOptions _ => IPN_DEST_OPTIONS
  | XAuthentication _ => IPN_AUTH
  end.

(* routed: a routing header was met in front *)
Definition item_slot (routed : bool) (it : ext_item) : slot :=
  match it with
  | XHopByHop _ => SHbh
  | XRouting _ => SRoute
  | XFragment _ => SFrag
  | XDestinationOptions _ => if routed then SFdest else SDest
  | XAuthentication _ => SAuth
  end.
Definition routed_after (routed : bool) (it : ext_item) : bool :=
  match it with XRouting _ => true | _ => routed end.

Fixpoint keyed (routed : bool) (l : list ext_item) : list (slot * slice) :=
  match l with
  | [] => []
  | it :: r => (item_slot routed it, ext_item_slice it) :: keyed (routed_after routed it) r
  end.

Definition holds (x : exts6) (L : list (slot * slice)) : Prop :=
  NoDup (map fst L) /\ forall k s, slot_get x k = Some s <-> In (k, s) L.

Definition slots_hold (x : exts6) (l : list ext_item) : Prop := holds x (keyed false l).

Fixpoint chain (W : slice) (k nh : N) (l : list ext_item) (k' nh' : N) : Prop :=
  match l with
  | [] => k' = k /\ nh' = nh
  | it :: r =>
      item_kind it = nh /\ item_wf it /\
      subU W k (s_len (ext_item_slice it)) = Ok (ext_item_slice it) /\
      exists nx, rdU (ext_item_slice it) 0 = Ok nx /\
                 chain W (k + s_len (ext_item_slice it)) nx r k' nh'
  end.

(* the same in absolute positions: consecutive windows from pos to pos_end *)
Fixpoint wchain (nh pos : N) (l : list ext_item) (nh_end pos_end : N) : Prop :=
  match l with
  | [] => nh_end = nh /\ pos_end = pos
  | it :: r =>
      item_kind it = nh /\ s_off (ext_item_slice it) = pos /\ item_wf it /\
      exists nx, rdU (ext_item_slice it) 0 = Ok nx /\
                 wchain nx (pos + s_len (ext_item_slice it)) r nh_end pos_end
  end.

(* the rest of a slice from relative offset k on *)
Definition at_off (base : slice) (k : N) : slice := (fst base + k, drop k (snd base)).

Lemma at_off_0 s : at_off s 0 = s.
Proof. destruct s as (o, l). unfold at_off. cbn [fst snd]. now rewrite N.add_0_r. Qed.

Lemma at_off_len s k : s_len (at_off s k) = s_len s - k.
Proof. unfold at_off. apply s_len_drop. Qed.

Lemma at_off_at_off s k j : at_off (at_off s k) j = at_off s (k + j).
Proof.
  unfold at_off. cbn [fst snd]. f_equal; [lia|]. unfold drop. rewrite skipn_skipn_add.
  f_equal. lia.
Qed.

Lemma at_off_subU s k j n : k <= s_len s -> subU (at_off s k) j n = subU s (k + j) n.
Proof.
  intros H. unfold subU. rewrite at_off_len.
  destruct (j + n <=? s_len s - k) eqn:A; destruct (k + j + n <=? s_len s) eqn:B; try lia; [|reflexivity].
  unfold at_off. cbn [fst snd]. f_equal. f_equal; [lia|]. unfold drop. rewrite skipn_skipn_add.
  do 2 f_equal. lia.
Qed.

Lemma at_off_rd s k i : rdU (at_off s k) i = rdU s (k + i).
Proof.
  unfold rdU, rd, at_off, drop. cbn [snd]. rewrite nth_error_skipn.
  replace (N.to_nat k + N.to_nat i)%nat with (N.to_nat (k + i)) by lia. reflexivity.
Qed.

Lemma item_wf_len it : item_wf it -> 8 <= s_len (ext_item_slice it).
Proof.
  destruct it as [s|s|s|s|s]; cbn [item_wf ext_item_slice]; unfold wf_raw, wf_frag, wf_ah.
  - intros (b & _ & ->). lia.
  - intros (b & _ & ->). lia.
  - intros ->. lia.
  - intros (b & _ & ->). lia.
  - intros (p & _ & P & ->). lia.
Qed.

Lemma chain_le W : forall l k nh k' nh', chain W k nh l k' nh' -> k + 8 * len l <= k'.
Proof.
  induction l as [|it r IH]; intros k nh k' nh'; cbn [chain].
  - intros (-> & _). unfold len. cbn. lia.
  - intros (_ & Wf & _ & nx & _ & C). apply IH in C. apply item_wf_len in Wf.
    rewrite len_cons. lia.
Qed.

Lemma chain_in W : forall l k nh k' nh', chain W k nh l k' nh' -> l <> [] -> k' <= s_len W.
Proof.
  induction l as [|it r IH]; intros k nh k' nh' C Hne; [now destruct Hne|].
  cbn [chain] in C. destruct C as (_ & Wf & Hs & nx & _ & C).
  destruct r as [|it2 r2].
  - cbn [chain] in C. destruct C as (-> & _). apply subU_inv in Hs. lia.
  - eapply IH; [exact C|discriminate].
Qed.

Lemma chain_wchain W : forall l k nh k' nh',
  chain W k nh l k' nh' -> wchain nh (s_off W + k) l nh' (s_off W + k').
Proof.
  induction l as [|it r IH]; intros k nh k' nh'; cbn [chain wchain].
  - intros (-> & ->). auto.
  - intros (Hk & Wf & Hs & nx & Hn & C). pose proof (subU_inv _ _ _ _ Hs) as (_ & _ & Ho & _).
    repeat split; auto. exists nx. split; [exact Hn|].
    replace (s_off W + k + s_len (ext_item_slice it)) with (s_off W + (k + s_len (ext_item_slice it))) by lia.
    now apply IH.
Qed.

(* a chain of W that ends inside the first u bytes is a chain of that prefix *)
Lemma chain_pre u I W : pre u I W -> forall l k nh k' nh',
  chain W k nh l k' nh' -> k' <= u -> chain I k nh l k' nh'.
Proof.
  intros P. induction l as [|it r IH]; intros k nh k' nh'; cbn [chain]; [auto|].
  intros (Hk & Wf & Hs & nx & Hn & C) Hu. pose proof (chain_le _ _ _ _ _ _ C) as L.
  repeat split; auto.
  - rewrite (pre_subU u I W k _ P) by lia. exact Hs.
  - exists nx. split; [exact Hn|]. now apply IH.
Qed.

Lemma NoDup_app_one {A} (l : list A) a : NoDup l -> ~ In a l -> NoDup (l ++ [a]).
Proof.
  induction l as [|x l IH]; intros ND Hn; cbn [app].
  - constructor; [intros []|constructor].
  - inversion ND as [|? ? Hx ND']; subst. constructor.
    + rewrite in_app_iff. cbn [In]. intros [H|[H|[]]]; [now apply Hx|]. subst. apply Hn. now left.
    + apply IH; [exact ND'|]. intros H. apply Hn. now right.
Qed.

Lemma holds_put x x1 L K s :
  holds x L -> slot_get x K = None ->
  (forall j, slot_get x1 j = if slot_eq_dec j K then Some s else slot_get x j) ->
  holds x1 (L ++ [(K, s)]).
Proof.
  intros (ND & HI) Hn Hx1. split.
  - rewrite map_app. cbn [map fst]. apply NoDup_app_one; [exact ND|].
    intros Hin. apply in_map_iff in Hin. destruct Hin as ((k0, s0) & E & Hin). cbn [fst] in E. subst k0.
    apply HI in Hin. congruence.
  - intros k s'. rewrite Hx1. rewrite in_app_iff. cbn [In].
    destruct (slot_eq_dec k K) as [->|Ne].
    + split.
      * intros E. injection E as <-. right. now left.
      * intros [Hin|[E|[]]]; [apply HI in Hin; congruence|now injection E as <-].
    + rewrite HI. split; [now left|]. intros [Hin|[E|[]]]; [exact Hin|]. injection E as E1 _. now destruct Ne.
Qed.

(* geometry of one step: the header is the head of `rest`, the new rest starts behind it *)
Lemma step_geom base k rest sl rest1 n :
  rest = at_off base k -> k <= s_len base -> subU rest 0 n = Ok sl ->
  idx_from rest (s_len sl) = Ok rest1 ->
  subU base k (s_len sl) = Ok sl /\ s_len sl = n /\ rest1 = at_off base (k + n) /\ k + n <= s_len base.
Proof.
  intros -> Hk Hs Hi. pose proof (subU_inv _ _ _ _ Hs) as (L & Ln & _ & _).
  rewrite at_off_len in L. rewrite Ln in *.
  rewrite at_off_subU, N.add_0_r in Hs by exact Hk.
  unfold idx_from in Hi. rewrite at_off_len in Hi.
  destruct (n <=? s_len base - k) eqn:E; [|discriminate]. injection Hi as <-.
  split; [exact Hs|]. split; [reflexivity|]. split; [|lia].
  change (at_off (at_off base k) n = at_off base (k + n)). apply at_off_at_off.
Qed.

Lemma raw_to_header_id sl h : raw_ext_to_header sl = Ok h -> h = sl.
Proof.
  unfold raw_ext_to_header. destruct (subN (s_len sl) 2); cbn [bind]; try discriminate.
  destruct (_ || _); [discriminate|]. intros H. now injection H.
Qed.

Lemma auth_to_header_id sl h : auth_to_header sl = Ok h -> h = sl.
Proof.
  unfold auth_to_header. destruct (subN (s_len sl) 12); cbn [bind]; try discriminate.
  destruct (_ || _); [discriminate|]. intros H. now injection H.
Qed.

Lemma raw_step_inv base k rest h rest1 nh1 :
  Ipv6Extensions.raw_step base rest = Ok (h, rest1, nh1) ->
  rest = at_off base k -> k <= s_len base ->
  wf_raw h /\ subU base k (s_len h) = Ok h /\ rdU h 0 = Ok nh1 /\
  rest1 = at_off base (k + s_len h) /\ k + s_len h <= s_len base.
Proof.
  unfold Ipv6Extensions.raw_step. intros H Hr Hk.
  binv H off Eoff. binv H sl Esl. apply map_len_err_inv in Esl.
  binv H rest' Er. binv H nh Enh. binv H h' Eh. injection H as <- <- <-.
  apply raw_to_header_id in Eh. subst h'. unfold Ipv6RawExtHeaderSlice.next_header in Enh.
  destruct (raw_inv _ _ Esl) as (b & _ & Hsl & _).
  pose proof (raw_wf _ _ Esl) as (Wsl & _).
  destruct (step_geom base k rest sl rest' _ Hr Hk Hsl Er) as (G1 & G2 & G3 & G4).
  rewrite <- G2 in G3, G4. repeat split; auto.
Qed.

Lemma frag_step_inv base k rest sl rest1 :
  Ipv6FragmentHeaderSlice.from_slice rest = Ok sl -> idx_from rest (s_len sl) = Ok rest1 ->
  rest = at_off base k -> k <= s_len base ->
  wf_frag sl /\ subU base k (s_len sl) = Ok sl /\
  rest1 = at_off base (k + s_len sl) /\ k + s_len sl <= s_len base.
Proof.
  intros Esl Er Hr Hk. destruct (frag_inv _ _ Esl) as (Hsl & _).
  pose proof (frag_wf _ _ Esl) as (Wsl & _).
  destruct (step_geom base k rest sl rest1 _ Hr Hk Hsl Er) as (G1 & G2 & G3 & G4).
  rewrite <- G2 in G3, G4. repeat split; auto.
Qed.

Lemma auth_step_inv base k rest sl rest1 :
  IpAuthHeaderSlice.from_slice rest = Ok sl -> idx_from rest (s_len sl) = Ok rest1 ->
  rest = at_off base k -> k <= s_len base ->
  wf_ah sl /\ subU base k (s_len sl) = Ok sl /\
  rest1 = at_off base (k + s_len sl) /\ k + s_len sl <= s_len base.
Proof.
  intros Esl Er Hr Hk. destruct (ah_inv _ _ Esl) as (p & _ & _ & Hsl & _).
  pose proof (ah_wf _ _ Esl) as (Wsl & _).
  destruct (step_geom base k rest sl rest1 _ Hr Hk Hsl Er) as (G1 & G2 & G3 & G4).
  rewrite <- G2 in G3, G4. repeat split; auto.
Qed.

(* what is proved about one run of the loop from the state (x, rest = base[k..], nh) *)
Definition loop_post (base : slice) (x : exts6) (L : list (slot * slice)) (k nh : N)
  (x' : exts6) (nh' : N) (r' : slice) : Prop :=
  exists l k', holds x' (L ++ keyed (is_some (x_route x)) l) /\
               chain base k nh l k' nh' /\ k' <= s_len base /\ r' = at_off base k'.

(* putting one more header `it` in front of what the rest of the loop produces *)
Lemma loop_cons base x x1 L k nh it K nh1 x' nh' r' :
  holds x L -> slot_get x K = None ->
  (forall j, slot_get x1 j = if slot_eq_dec j K then Some (ext_item_slice it) else slot_get x j) ->
  item_slot (is_some (x_route x)) it = K ->
  routed_after (is_some (x_route x)) it = is_some (x_route x1) ->
  item_kind it = nh -> item_wf it ->
  subU base k (s_len (ext_item_slice it)) = Ok (ext_item_slice it) ->
  rdU (ext_item_slice it) 0 = Ok nh1 ->
  (forall L1, holds x1 L1 -> loop_post base x1 L1 (k + s_len (ext_item_slice it)) nh1 x' nh' r') ->
  loop_post base x L k nh x' nh' r'.
Proof.
  intros Hh Hn Hx1 Hslot Hrt Hkind Hwf Hsub Hrd IH.
  destruct (IH _ (holds_put x x1 L K _ Hh Hn Hx1)) as (l1 & k' & H1 & H2 & H3 & H4).
  exists (it :: l1), k'. cbn [keyed chain]. rewrite Hslot, Hrt.
  split; [now rewrite <- app_assoc in H1|]. split; [|auto].
  repeat split; auto. exists nh1. auto.
Qed.

Lemma loop_stop base x L k nh : k <= s_len base -> holds x L ->
  loop_post base x L k nh x nh (at_off base k).
Proof.
  intros Hk Hh. exists [], k. cbn [keyed chain]. rewrite app_nil_r. split; [exact Hh|]. repeat split; auto.
Qed.

Ltac cons_with H it K nh1 :=
  match type of H with
  | Ipv6Extensions.loop _ _ ?x1 _ _ = _ => apply (loop_cons _ _ x1 _ _ _ it K nh1)
  end.

Lemma loop_slots fuel : forall base x rest nh k x' nh' r' L,
  Ipv6Extensions.loop fuel base x rest nh = Ok (x', nh', r') ->
  k <= s_len base -> rest = at_off base k ->
  holds x L -> (x_route x = None -> x_fdest x = None) ->
  loop_post base x L k nh x' nh' r'.
Proof.
  induction fuel as [|f IH]; intros base x rest nh k x' nh' r' L H Hk Hr Hh Hfd; [discriminate|].
  cbn [Ipv6Extensions.loop] in H.
  destruct (nh =? IPN_HOP_BY_HOP) eqn:E0; [discriminate|].
  destruct (nh =? IPN_DEST_OPTIONS) eqn:E60.
  { apply N.eqb_eq in E60.
    destruct (x_route x) as [rt|] eqn:Ert.
    - destruct (x_fdest x) as [fd|] eqn:Efd; cbn [is_some] in H.
      + injection H as <- <- <-. subst rest. now apply loop_stop.
      + binv H r Er. destruct r as ((h, rest1), nh1).
        destruct (raw_step_inv base k rest h rest1 nh1 Er Hr Hk) as (Wf & Hs & Hn & Hr1 & Hk1).
        cons_with H (XDestinationOptions h) SFdest nh1; auto.
        * intros j. destruct j; cbn; congruence.
        * cbn. now rewrite Ert.
        * cbn. now rewrite Ert.
        * intros L1 HL1. cbn [ext_item_slice].
          apply (IH base _ rest1 nh1 (k + s_len h) x' nh' r' L1 H); auto.
          cbn. intros X; discriminate X.
    - destruct (x_dest x) as [d|] eqn:Ed; cbn [is_some] in H.
      + injection H as <- <- <-. subst rest. now apply loop_stop.
      + binv H r Er. destruct r as ((h, rest1), nh1).
        destruct (raw_step_inv base k rest h rest1 nh1 Er Hr Hk) as (Wf & Hs & Hn & Hr1 & Hk1).
        cons_with H (XDestinationOptions h) SDest nh1; auto.
        * intros j. destruct j; cbn; congruence.
        * cbn. now rewrite Ert.
        * cbn. now rewrite Ert.
        * intros L1 HL1. cbn [ext_item_slice].
          apply (IH base _ rest1 nh1 (k + s_len h) x' nh' r' L1 H); auto. }
  destruct (nh =? IPN_ROUTE) eqn:E43.
  { apply N.eqb_eq in E43.
    destruct (x_route x) as [rt|] eqn:Ert; cbn [is_some] in H.
    - injection H as <- <- <-. subst rest. now apply loop_stop.
    - binv H r Er. destruct r as ((h, rest1), nh1).
      destruct (raw_step_inv base k rest h rest1 nh1 Er Hr Hk) as (Wf & Hs & Hn & Hr1 & Hk1).
      pose proof (Hfd eq_refl) as Fd.
      cons_with H (XRouting h) SRoute nh1; auto.
      + intros j. destruct j; cbn; congruence.
      + intros L1 HL1. cbn [ext_item_slice].
        apply (IH base _ rest1 nh1 (k + s_len h) x' nh' r' L1 H); auto. }
  destruct (nh =? IPN_FRAG) eqn:E44.
  { apply N.eqb_eq in E44.
    destruct (x_frag x) as [fg|] eqn:Efg; cbn [is_some] in H.
    - injection H as <- <- <-. subst rest. now apply loop_stop.
    - binv H off Eoff. binv H sl Esl. apply map_len_err_inv in Esl.
      binv H rest1 Er. binv H nh1 Enh. unfold Ipv6FragmentHeaderSlice.next_header in Enh.
      destruct (frag_step_inv base k rest sl rest1 Esl Er Hr Hk) as (Wf & Hs & Hr1 & Hk1).
      cons_with H (XFragment sl) SFrag nh1; auto.
      + intros j. destruct j; cbn; congruence.
      + intros L1 HL1. cbn [ext_item_slice].
        apply (IH base _ rest1 nh1 (k + s_len sl) x' nh' r' L1 H); auto. }
  destruct (nh =? IPN_AUTH) eqn:E51.
  { apply N.eqb_eq in E51.
    destruct (x_auth x) as [au|] eqn:Eau; cbn [is_some] in H.
    - injection H as <- <- <-. subst rest. now apply loop_stop.
    - binv H off Eoff. binv H sl Esl.
      assert (Esl' : IpAuthHeaderSlice.from_slice rest = Ok sl).
      { destruct (IpAuthHeaderSlice.from_slice rest) as [a|[e|c]|b]; try discriminate; exact Esl. }
      binv H rest1 Er. binv H nh1 Enh. unfold IpAuthHeaderSlice.next_header in Enh.
      binv H h Eh. apply auth_to_header_id in Eh. subst h.
      destruct (auth_step_inv base k rest sl rest1 Esl' Er Hr Hk) as (Wf & Hs & Hr1 & Hk1).
      cons_with H (XAuthentication sl) SAuth nh1; auto.
      + intros j. destruct j; cbn; congruence.
      + intros L1 HL1. cbn [ext_item_slice].
        apply (IH base _ rest1 nh1 (k + s_len sl) x' nh' r' L1 H); auto. }
  injection H as <- <- <-. subst rest. now apply loop_stop.
Qed.

Lemma holds_empty : holds exts6_empty [].
Proof.
  split; [constructor|]. intros k s. cbn [In]. destruct k; cbn; split; intros H; try discriminate H; destruct H.
Qed.

Theorem from_slice_slots nh0 hp x nh' r :
  Ipv6Extensions.from_slice nh0 hp = Ok (x, nh', r) ->
  exists l k', slots_hold x l /\ chain hp 0 nh0 l k' nh' /\ k' <= s_len hp /\ r = at_off hp k'.
Proof.
  unfold Ipv6Extensions.from_slice. intros H. binv H st Est. destruct st as ((x0, rest0), nhx).
  destruct (IPN_HOP_BY_HOP =? nh0) eqn:Eh.
  - apply N.eqb_eq in Eh.
    binv Est sl Esl. binv Est rest1 Er. binv Est nh1 Enh. binv Est h Ehd. injection Est as <- <- <-.
    apply raw_to_header_id in Ehd. subst h. unfold Ipv6RawExtHeaderSlice.next_header in Enh.
    destruct (raw_inv _ _ Esl) as (b & _ & Hsl & _).
    pose proof (raw_wf _ _ Esl) as (Wsl & _).
    destruct (step_geom hp 0 hp sl rest1 _ (eq_sym (at_off_0 hp)) ltac:(lia) Hsl Er) as (G1 & G2 & G3 & G4).
    rewrite <- G2 in G3, G4. rewrite N.add_0_l in G3, G4.
    assert (Hh : holds (mkExts6 (Some sl) None None None None None) [(SHbh, sl)]).
    { apply (holds_put exts6_empty _ [] SHbh sl holds_empty eq_refl). intros j. destruct j; cbn; congruence. }
    destruct (loop_slots _ hp _ rest1 nh1 (s_len sl) x nh' r _ H G4 G3 Hh ltac:(reflexivity))
      as (l1 & k' & H1 & H2 & H3 & H4).
    exists (XHopByHop sl :: l1), k'. unfold slots_hold. cbn [keyed chain item_slot routed_after ext_item_slice].
    split; [exact H1|]. split; [|auto]. rewrite N.add_0_l.
    repeat split; auto. exists nh1. auto.
  - injection Est as <- <- <-.
    destruct (loop_slots _ hp _ hp nh0 0 x nh' r [] H ltac:(lia) (eq_sym (at_off_0 hp)) holds_empty ltac:(reflexivity))
      as (l1 & k' & H1 & H2 & H3 & H4).
    exists l1, k'. auto.
Qed.

Lemma arm_at I k nh s nx mk nhf wrap :
  k + s_len s <= s_len I -> mk (at_off I k) = Ok s -> nhf s = Ok nx ->
  arm (mkExtIter nh (at_off I k)) mk nhf wrap =
    Ok (Some (wrap s, mkExtIter nx (at_off I (k + s_len s)))).
Proof.
  intros Hl Hmk Hnh. unfold arm. cbn [xi_rest]. rewrite Hmk. cbn [bind].
  rewrite at_off_len. rewrite subN_ok by lia. cbn [bind].
  replace (s_len I - k - s_len s) with (s_len (at_off I k) - s_len s) by (rewrite at_off_len; lia).
  rewrite subU_rest by (rewrite at_off_len; lia). cbn [bind]. rewrite Hnh. cbn [bind].
  change (fst (at_off I k) + s_len s, drop (s_len s) (snd (at_off I k))) with (at_off (at_off I k) (s_len s)).
  now rewrite at_off_at_off.
Qed.

Lemma next_item I k nh it nx :
  item_kind it = nh -> item_wf it ->
  subU I k (s_len (ext_item_slice it)) = Ok (ext_item_slice it) ->
  rdU (ext_item_slice it) 0 = Ok nx ->
  next (mkExtIter nh (at_off I k)) =
    Ok (Some (it, mkExtIter nx (at_off I (k + s_len (ext_item_slice it))))).
Proof.
  intros Hk Wf Hs Hn. pose proof (item_wf_len it Wf) as L8.
  pose proof (subU_inv _ _ _ _ Hs) as (Hl & _ & _ & _).
  assert (Kl : k <= s_len I) by lia.
  unfold next. cbn [xi_rest xi_next_header]. rewrite at_off_len.
  destruct (s_len I - k =? 0) eqn:Z; [lia|]. subst nh.
  destruct it as [s|s|s|s|s]; cbn [item_kind ext_item_slice item_wf] in *.
  - change (IPN_HOP_BY_HOP =? IPN_HOP_BY_HOP) with true. cbv iota.
    destruct Wf as (b & E1 & Lb).
    apply arm_at; auto. unfold Ipv6RawExtHeaderA.from_slice_unchecked.
    rewrite at_off_rd. rewrite <- (subU_rd I k _ s 1 Hs) by lia. rewrite E1. cbn [bind].
    rewrite at_off_subU, N.add_0_r by exact Kl. now rewrite <- Lb.
  - change (IPN_ROUTE =? IPN_HOP_BY_HOP) with false. change (IPN_ROUTE =? IPN_ROUTE) with true. cbv iota.
    destruct Wf as (b & E1 & Lb).
    apply arm_at; auto. unfold Ipv6RawExtHeaderA.from_slice_unchecked.
    rewrite at_off_rd. rewrite <- (subU_rd I k _ s 1 Hs) by lia. rewrite E1. cbn [bind].
    rewrite at_off_subU, N.add_0_r by exact Kl. now rewrite <- Lb.
  - change (IPN_FRAG =? IPN_HOP_BY_HOP) with false. change (IPN_FRAG =? IPN_ROUTE) with false.
    change (IPN_FRAG =? IPN_DEST_OPTIONS) with false. change (IPN_FRAG =? IPN_FRAG) with true. cbv iota.
    unfold wf_frag in Wf.
    apply arm_at; auto. unfold Ipv6FragmentHeaderA.from_slice_unchecked.
    rewrite at_off_subU, N.add_0_r by exact Kl. now rewrite <- Wf.
  - change (IPN_DEST_OPTIONS =? IPN_HOP_BY_HOP) with false. change (IPN_DEST_OPTIONS =? IPN_ROUTE) with false.
    change (IPN_DEST_OPTIONS =? IPN_DEST_OPTIONS) with true. cbv iota.
    destruct Wf as (b & E1 & Lb).
    apply arm_at; auto. unfold Ipv6RawExtHeaderA.from_slice_unchecked.
    rewrite at_off_rd. rewrite <- (subU_rd I k _ s 1 Hs) by lia. rewrite E1. cbn [bind].
    rewrite at_off_subU, N.add_0_r by exact Kl. now rewrite <- Lb.
  - change (IPN_AUTH =? IPN_HOP_BY_HOP) with false. change (IPN_AUTH =? IPN_ROUTE) with false.
    change (IPN_AUTH =? IPN_DEST_OPTIONS) with false. change (IPN_AUTH =? IPN_FRAG) with false.
    change (IPN_AUTH =? IPN_AUTH) with true. cbv iota.
    destruct Wf as (p & E1 & P1 & Lp).
    apply arm_at; auto. unfold auth_from_slice_unchecked.
    rewrite at_off_rd. rewrite <- (subU_rd I k _ s 1 Hs) by lia. rewrite E1. cbn [bind].
    rewrite at_off_subU, N.add_0_r by exact Kl. now rewrite <- Lp.
Qed.

Theorem collect_chain I : forall l k nh nh' fuel,
  chain I k nh l (s_len I) nh' -> k <= s_len I -> (length l < fuel)%nat ->
  collect fuel (mkExtIter nh (at_off I k)) = Ok l.
Proof.
  induction l as [|it r IH]; intros k nh nh' fuel C Hk Hf; (destruct fuel as [|f]; [cbn in Hf; lia|]);
    cbn [chain] in C; cbn [collect].
  - destruct C as (E & _). rewrite next_empty by (rewrite at_off_len; lia). reflexivity.
  - destruct C as (Hkind & Wf & Hs & nx & Hn & C).
    rewrite (next_item I k nh it nx Hkind Wf Hs Hn). cbn [bind].
    pose proof (subU_inv _ _ _ _ Hs) as (Hl & _ & _ & _).
    rewrite (IH _ nx nh' f C) by (cbn in Hf; lia). reflexivity.
Qed.

Definition ext_rel6 (nh0 : N) (x : exts6) (xs : ipv6_exts_slice) : Prop :=
  exists l nh', items xs = Ok l /\ slots_hold x l /\
    chain (x6_slice xs) 0 nh0 l (s_len (x6_slice xs)) nh' /\ s_len (x6_slice xs) = exts6_len x.

Lemma chain_nil_any W k nh l nh' nhx : chain W k nh l k nh' -> l = [] /\ chain W k nhx [] k nhx.
Proof.
  intros C. pose proof (chain_le _ _ _ _ _ _ C) as L.
  destruct l as [|it r]; [split; [reflexivity|cbn; auto]|]. rewrite len_cons in L. lia.
Qed.

Theorem exts_slots nh0 hp x nh' r xs nh'' r' : bytes_ok (snd hp) ->
  Ipv6Extensions.from_slice nh0 hp = Ok (x, nh', r) ->
  Cut.exts_from_slice true nh0 hp = Ok (xs, nh'', r') ->
  ext_rel6 nh0 x xs /\ s_off (x6_slice xs) = s_off hp.
Proof.
  intros Hok Hh Hs. pose proof (exts_agree nh0 hp Hok) as A. rewrite Hh, Hs in A.
  destruct A as (-> & -> & _ & Win & _ & _).
  destruct (from_slice_slots _ _ _ _ _ Hh) as (l & k' & S1 & S2 & S3 & S4).
  unfold Cut.exts_from_slice in Hs. binv Hs st Est. destruct st as (rest0, nh00).
  binv Hs w Ew. destruct w as ((restf, nxf), frf).
  binv Hs used Eu. apply subN_inv in Eu. destruct Eu as (Lr & ->).
  binv Hs sl Esl. destruct (s_len hp - s_len restf <=? s_len hp) eqn:Eus; [|discriminate]. injection Esl as <-.
  injection Hs as <- _ <-. cbn [x6_slice x6_first] in *.
  subst restf.
  assert (Eused : s_len hp - s_len (at_off hp k') = k') by (rewrite at_off_len; lia).
  rewrite Eused in *.
  set (I := (fst hp, take k' (snd hp))) in *.
  assert (PI : pre k' I hp) by (apply pre_take; lia).
  pose proof (pre_len _ _ _ PI) as LI.
  assert (Hlen : k' = exts6_len x) by (unfold win_of in Win; rewrite LI in Win; now injection Win).
  split; [|reflexivity].
  pose proof (chain_pre k' I hp PI _ _ _ _ _ S2 ltac:(lia)) as C. rewrite <- LI in C.
  unfold ext_rel6. cbn [x6_slice]. exists l, nh'. split; [|split; [exact S1|split; [exact C|now rewrite LI]]].
  unfold items, into_iter. cbn [x6_slice x6_first]. rewrite <- (at_off_0 I) at 2.
  rewrite at_off_len.
  pose proof (chain_le _ _ _ _ _ _ C) as Ll.
  assert (Hfuel : (length l < S (length (snd I)))%nat).
  { rewrite s_len_length. unfold len in Ll. lia. }
  destruct (s_len hp - k' =? s_len hp) eqn:Ez; cbn [negb].
  - assert (Z : k' = 0) by lia. rewrite LI, Z in C.
    destruct (chain_nil_any _ _ _ _ _ IPN_UDP C) as (-> & C0).
    apply (collect_chain I [] 0 IPN_UDP IPN_UDP); auto; try lia. rewrite LI, Z. exact C0.
  - apply (collect_chain I l 0 nh0 nh'); auto. lia.
Qed.
