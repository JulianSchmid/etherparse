(* Parse/GenAccessOk.v -- every accessor that tools/gen_accessors.py regenerates
   from the crate's source on every run (Gen/Accessors.v, not committed) equals the
   hand-written model of that accessor (Parse/Access.v, Parse/AccessExtra.v), and,
   where property C15 has its own decoder for the same field (BitFields/Model.v),
   that decoder as well.  The theorems of C03 / C15 / C01 / C02 are about the hand
   models; the lemmas here tie the hand models to definitions REGENERATED from the
   code on every build: a changed mask, shift, index, byte order or operator precedence
   in an accessor breaks the lemma of that accessor.

   Statements: accessors that only read (bytes, big-endian words, arrays) are
   equal unconditionally; accessors with bit arithmetic are stated for slices
   whose elements are bytes (`bytes_ok (snd s)`, i.e. every element < 256 -- true
   of every Rust `&[u8]`), so
   that the equation can be DECIDED by a complete sweep over 0..255 (one byte) or
   0..255 x 0..255 (two bytes) when the two sides are not convertible. *)
From EP Require Import Base.Bytes Parse.Types Parse.Slices Parse.Access Parse.AccessExtra.
From EP Require Gen.Accessors.
From EP Require BitFields.Model.
Import EP.Gen.Accessors.
Module BM := EP.BitFields.Model.

Local Open Scope N_scope.

Definition range256 : list N := map N.of_nat (seq 0 256).

Lemma range256_in b : b < 256 -> In b range256.
Proof.
  intros Hb. unfold range256. apply in_map_iff. exists (N.to_nat b).
  split; [lia|]. apply in_seq. lia.
Qed.

Definition sweep1 (P : N -> bool) : bool := forallb P range256.
Definition sweep2 (P : N -> N -> bool) : bool :=
  forallb (fun a => forallb (P a) range256) range256.

Lemma sweep1_ok P : sweep1 P = true -> forall a, a < 256 -> P a = true.
Proof.
  unfold sweep1. intros HP a Ha. rewrite forallb_forall in HP.
  apply HP. now apply range256_in.
Qed.

Lemma sweep2_ok P : sweep2 P = true ->
  forall a, a < 256 -> forall b, b < 256 -> P a b = true.
Proof.
  unfold sweep2. intros HP a Ha b Hb. rewrite forallb_forall in HP.
  specialize (HP a (range256_in a Ha)). rewrite forallb_forall in HP.
  apply HP. now apply range256_in.
Qed.

Lemma rdU_byte s i b : bytes_ok (snd s) -> rdU s i = Ok b -> b < 256.
Proof.
  unfold rdU. intros Hs E. destruct (rd (snd s) i) as [v|] eqn:R; [|discriminate].
  injection E as <-. eapply rd_ok; eauto.
Qed.

(* destruct every read of the goal: the failing branches coincide, the bytes read
   are bounded when [bytes_ok (snd s)] is at hand *)
Ltac acc_reads :=
  repeat match goal with
  | |- context [rdU ?s ?i] =>
      let b := fresh "b" in let E := fresh "E" in
      destruct (rdU s i) as [b | ? | ?] eqn:E; cbv beta iota;
      [ | reflexivity | reflexivity ];
      try match goal with
          | Hs : bytes_ok (snd s) |- _ => apply (rdU_byte _ _ _ Hs) in E
          end
  end.

(* [e1 = e2] on N or bool, every byte [b] in it bounded by a hypothesis [b < 256]:
   evaluate [e1 =? e2] at all 256 (one byte) or 65536 (two bytes) points *)
Ltac sweep :=
  repeat match goal with
  | H : ?b < 256 |- ?G =>
      lazymatch G with context [b] => fail | _ => clear H end
  end;
  lazymatch goal with
  | |- @eq N _ _ => apply N.eqb_eq
  | |- @eq bool _ _ => apply Bool.eqb_prop
  end;
  lazymatch goal with
  | _ : _ < 256, _ : _ < 256, _ : _ < 256 |- _ =>
      fail "sweep over more than two bytes is not supported"
  | Ha : ?a < 256, Hb : ?b < 256 |- ?e = true =>
      let f := eval pattern a, b in e in
      lazymatch f with
      | ?F _ _ => exact (sweep2_ok F (eq_refl true <: sweep2 F = true) a Ha b Hb)
      end
  | Ha : ?a < 256 |- ?e = true =>
      let f := eval pattern a in e in
      lazymatch f with
      | ?F _ => exact (sweep1_ok F (eq_refl true <: sweep1 F = true) a Ha)
      end
  | |- _ = true => vm_compute; reflexivity
  end.

(* The script of every lemma [gen_<type>_<fn>] below.  Both sides are unfolded
   down to the reads of [s] and the arithmetic on the bytes read (index sums like
   2 + 1 are computed on the way).  As long as the translator prints an accessor
   the way the hand model writes it, up to the names of bound variables and folded
   callees, or emits it as a FALLBACK alias of the hand model, the two normal forms
   are the same term.  After a behaviour-preserving rewrite of the Rust source
   inside the translator's grammar (`x >> 4` -> `(x & 0xf0) >> 4`, `0 != (x & m)`
   -> `(x & m) != 0`, ...) they are not, and the equation is decided byte by byte. *)
Ltac acc_eq :=
  intros;
  cbv -[rdU N.land N.lor N.shiftl N.shiftr N.modulo N.eqb negb orb andb be16 be32];
  first [ reflexivity
        | acc_reads; try reflexivity; f_equal; sweep ].

Lemma gen_eth2_destination : forall e, GEthernet2Slice.destination (e2_slice e) = Ethernet2A.destination e.
Proof. acc_eq. Qed.
Lemma gen_eth2_source : forall e, GEthernet2Slice.source (e2_slice e) = Ethernet2A.source e.
Proof. acc_eq. Qed.
Lemma gen_eth2_ether_type : forall e, GEthernet2Slice.ether_type (e2_slice e) = Ethernet2A.ether_type e.
Proof. acc_eq. Qed.
Lemma gen_eth2_header_len : forall s, GEthernet2Slice.header_len s = Ok Ethernet2Slice.header_len.
Proof. acc_eq. Qed.

Lemma gen_eth2hdr_destination : forall s, GEthernet2HeaderSlice.destination s = Ethernet2A.destination (mkEth2 0 s).
Proof. acc_eq. Qed.
Lemma gen_eth2hdr_source : forall s, GEthernet2HeaderSlice.source s = Ethernet2A.source (mkEth2 0 s).
Proof. acc_eq. Qed.
Lemma gen_eth2hdr_ether_type : forall s, GEthernet2HeaderSlice.ether_type s = Ethernet2A.ether_type (mkEth2 0 s).
Proof. acc_eq. Qed.

Lemma gen_vlan_priority_code_point : forall s, bytes_ok (snd s) ->
  GSingleVlanSlice.priority_code_point s = SingleVlanA.priority_code_point s.
Proof. acc_eq. Qed.
Lemma gen_vlan_drop_eligible_indicator : forall s, bytes_ok (snd s) ->
  GSingleVlanSlice.drop_eligible_indicator s = SingleVlanA.drop_eligible_indicator s.
Proof. acc_eq. Qed.
Lemma gen_vlan_vlan_identifier : forall s, bytes_ok (snd s) ->
  GSingleVlanSlice.vlan_identifier s = SingleVlanA.vlan_identifier s.
Proof. acc_eq. Qed.
Lemma gen_vlan_ether_type : forall s, GSingleVlanSlice.ether_type s = SingleVlanA.ether_type s.
Proof. acc_eq. Qed.
Lemma gen_vlan_header_len : forall s, GSingleVlanSlice.header_len s = Ok SingleVlanSlice.header_len.
Proof. acc_eq. Qed.

Lemma gen_vlanhdr_priority_code_point : forall s, bytes_ok (snd s) ->
  GSingleVlanHeaderSlice.priority_code_point s = SingleVlanA.priority_code_point s.
Proof. acc_eq. Qed.
Lemma gen_vlanhdr_drop_eligible_indicator : forall s, bytes_ok (snd s) ->
  GSingleVlanHeaderSlice.drop_eligible_indicator s = SingleVlanA.drop_eligible_indicator s.
Proof. acc_eq. Qed.
Lemma gen_vlanhdr_vlan_identifier : forall s, bytes_ok (snd s) ->
  GSingleVlanHeaderSlice.vlan_identifier s = SingleVlanA.vlan_identifier s.
Proof. acc_eq. Qed.
Lemma gen_vlanhdr_ether_type : forall s, GSingleVlanHeaderSlice.ether_type s = SingleVlanA.ether_type s.
Proof. acc_eq. Qed.

Lemma gen_sll_arp_hardware_type : forall s, GLinuxSllHeaderSlice.arp_hardware_type s = LinuxSllHeaderA.arp_hardware_type s.
Proof. acc_eq. Qed.
Lemma gen_sll_sender_address_valid_length : forall s, GLinuxSllHeaderSlice.sender_address_valid_length s = LinuxSllHeaderA.sender_address_valid_length s.
Proof. acc_eq. Qed.
Lemma gen_sll_sender_address_full : forall s, GLinuxSllHeaderSlice.sender_address_full s = LinuxSllHeaderA.sender_address_full s.
Proof. acc_eq. Qed.

Lemma gen_macsec_tci_an_raw : forall s, GMacsecHeaderSlice.tci_an_raw s = MacsecHeaderA.tci_an_raw s.
Proof. acc_eq. Qed.
Lemma gen_macsec_endstation_id : forall s, bytes_ok (snd s) ->
  GMacsecHeaderSlice.endstation_id s = MacsecHeaderA.endstation_id s.
Proof. acc_eq. Qed.
Lemma gen_macsec_tci_scb : forall s, bytes_ok (snd s) ->
  GMacsecHeaderSlice.tci_scb s = MacsecHeaderA.tci_scb s.
Proof. acc_eq. Qed.
Lemma gen_macsec_encrypted : forall s, bytes_ok (snd s) ->
  GMacsecHeaderSlice.encrypted s = MacsecHeaderA.encrypted s.
Proof. acc_eq. Qed.
Lemma gen_macsec_userdata_changed : forall s, bytes_ok (snd s) ->
  GMacsecHeaderSlice.userdata_changed s = MacsecHeaderA.userdata_changed s.
Proof. acc_eq. Qed.
Lemma gen_macsec_is_unmodified : forall s, bytes_ok (snd s) ->
  GMacsecHeaderSlice.is_unmodified s = MacsecHeaderA.is_unmodified s.
Proof. acc_eq. Qed.
Lemma gen_macsec_an : forall s, bytes_ok (snd s) ->
  GMacsecHeaderSlice.an s = MacsecHeaderA.an s.
Proof. acc_eq. Qed.
Lemma gen_macsec_short_len : forall s, bytes_ok (snd s) ->
  GMacsecHeaderSlice.short_len s = MacsecHeaderA.short_len s.
Proof. acc_eq. Qed.
Lemma gen_macsec_packet_nr : forall s, GMacsecHeaderSlice.packet_nr s = MacsecHeaderA.packet_nr s.
Proof. acc_eq. Qed.
Lemma gen_macsec_sci_present : forall s, bytes_ok (snd s) ->
  GMacsecHeaderSlice.sci_present s = MacsecHeaderA.sci_present s.
Proof. acc_eq. Qed.

Lemma gen_arp_hw_addr_type : forall s, GArpPacketSlice.hw_addr_type s = ArpPacketA.hw_addr_type s.
Proof. acc_eq. Qed.
Lemma gen_arp_proto_addr_type : forall s, GArpPacketSlice.proto_addr_type s = ArpPacketA.proto_addr_type s.
Proof. acc_eq. Qed.
Lemma gen_arp_hw_addr_size : forall s, GArpPacketSlice.hw_addr_size s = ArpPacketA.hw_addr_size s.
Proof. acc_eq. Qed.
Lemma gen_arp_proto_addr_size : forall s, GArpPacketSlice.proto_addr_size s = ArpPacketA.proto_addr_size s.
Proof. acc_eq. Qed.
Lemma gen_arp_operation : forall s, GArpPacketSlice.operation s = ArpPacketA.operation s.
Proof. acc_eq. Qed.

Lemma gen_ipv4_version : forall s, bytes_ok (snd s) ->
  GIpv4HeaderSlice.version s = Ipv4HeaderA.version s.
Proof. acc_eq. Qed.
Lemma gen_ipv4_ihl : forall s, bytes_ok (snd s) ->
  GIpv4HeaderSlice.ihl s = Ipv4HeaderA.ihl s.
Proof. acc_eq. Qed.
Lemma gen_ipv4_dcp : forall s, bytes_ok (snd s) ->
  GIpv4HeaderSlice.dcp s = Ipv4HeaderA.dcp s.
Proof. acc_eq. Qed.
Lemma gen_ipv4_ecn : forall s, bytes_ok (snd s) ->
  GIpv4HeaderSlice.ecn s = Ipv4HeaderA.ecn s.
Proof. acc_eq. Qed.
Lemma gen_ipv4_total_len : forall s, GIpv4HeaderSlice.total_len s = Ipv4HeaderA.total_len s.
Proof. acc_eq. Qed.
Lemma gen_ipv4_identification : forall s, GIpv4HeaderSlice.identification s = Ipv4HeaderA.identification s.
Proof. acc_eq. Qed.
Lemma gen_ipv4_dont_fragment : forall s, bytes_ok (snd s) ->
  GIpv4HeaderSlice.dont_fragment s = Ipv4HeaderA.dont_fragment s.
Proof. acc_eq. Qed.
Lemma gen_ipv4_more_fragments : forall s, bytes_ok (snd s) ->
  GIpv4HeaderSlice.more_fragments s = Ipv4HeaderA.more_fragments s.
Proof. acc_eq. Qed.
Lemma gen_ipv4_fragments_offset : forall s, bytes_ok (snd s) ->
  GIpv4HeaderSlice.fragments_offset s = Ipv4HeaderA.fragments_offset s.
Proof. acc_eq. Qed.
Lemma gen_ipv4_ttl : forall s, GIpv4HeaderSlice.ttl s = Ipv4HeaderA.ttl s.
Proof. acc_eq. Qed.
Lemma gen_ipv4_protocol : forall s, GIpv4HeaderSlice.protocol s = Ipv4HeaderA.protocol s.
Proof. acc_eq. Qed.
Lemma gen_ipv4_header_checksum : forall s, GIpv4HeaderSlice.header_checksum s = Ipv4HeaderA.header_checksum s.
Proof. acc_eq. Qed.
Lemma gen_ipv4_source : forall s, GIpv4HeaderSlice.source s = Ipv4HeaderA.source s.
Proof. acc_eq. Qed.
Lemma gen_ipv4_destination : forall s, GIpv4HeaderSlice.destination s = Ipv4HeaderA.destination s.
Proof. acc_eq. Qed.
Lemma gen_ipv4_is_fragmenting_payload : forall s, bytes_ok (snd s) ->
  GIpv4HeaderSlice.is_fragmenting_payload s = Ipv4HeaderA.is_fragmenting_payload s.
Proof. acc_eq. Qed.
Lemma gen_ipv4_source_addr : forall s, GIpv4HeaderSlice.source_addr s = Ipv4HeaderX.source_addr s.
Proof. acc_eq. Qed.
Lemma gen_ipv4_destination_addr : forall s, GIpv4HeaderSlice.destination_addr s = Ipv4HeaderX.destination_addr s.
Proof. acc_eq. Qed.

Lemma gen_ipv6_version : forall s, bytes_ok (snd s) ->
  GIpv6HeaderSlice.version s = Ipv6HeaderA.version s.
Proof. acc_eq. Qed.
Lemma gen_ipv6_traffic_class : forall s, bytes_ok (snd s) ->
  GIpv6HeaderSlice.traffic_class s = Ipv6HeaderA.traffic_class s.
Proof. acc_eq. Qed.
Lemma gen_ipv6_ecn : forall s, bytes_ok (snd s) ->
  GIpv6HeaderSlice.ecn s = Ipv6HeaderA.ecn s.
Proof. acc_eq. Qed.
Lemma gen_ipv6_dscp : forall s, bytes_ok (snd s) ->
  GIpv6HeaderSlice.dscp s = Ipv6HeaderA.dscp s.
Proof. acc_eq. Qed.
Lemma gen_ipv6_flow_label : forall s, bytes_ok (snd s) ->
  GIpv6HeaderSlice.flow_label s = Ipv6HeaderA.flow_label s.
Proof. acc_eq. Qed.
Lemma gen_ipv6_payload_length : forall s, GIpv6HeaderSlice.payload_length s = Ipv6HeaderA.payload_length s.
Proof. acc_eq. Qed.
Lemma gen_ipv6_next_header : forall s, GIpv6HeaderSlice.next_header s = Ipv6HeaderA.next_header s.
Proof. acc_eq. Qed.
Lemma gen_ipv6_hop_limit : forall s, GIpv6HeaderSlice.hop_limit s = Ipv6HeaderA.hop_limit s.
Proof. acc_eq. Qed.
Lemma gen_ipv6_source : forall s, GIpv6HeaderSlice.source s = Ipv6HeaderA.source s.
Proof. acc_eq. Qed.
Lemma gen_ipv6_destination : forall s, GIpv6HeaderSlice.destination s = Ipv6HeaderA.destination s.
Proof. acc_eq. Qed.
Lemma gen_ipv6_source_addr : forall s, GIpv6HeaderSlice.source_addr s = Ipv6HeaderX.source_addr s.
Proof. acc_eq. Qed.
Lemma gen_ipv6_destination_addr : forall s, GIpv6HeaderSlice.destination_addr s = Ipv6HeaderX.destination_addr s.
Proof. acc_eq. Qed.
Lemma gen_ipv6_header_len : forall s, GIpv6HeaderSlice.header_len s = Ipv6HeaderX.header_len s.
Proof. acc_eq. Qed.

Lemma gen_frag_next_header : forall s, GIpv6FragmentHeaderSlice.next_header s = Ipv6FragmentHeaderA.next_header s.
Proof. acc_eq. Qed.
Lemma gen_frag_fragment_offset : forall s, bytes_ok (snd s) ->
  GIpv6FragmentHeaderSlice.fragment_offset s = Ipv6FragmentHeaderA.fragment_offset s.
Proof. acc_eq. Qed.
Lemma gen_frag_more_fragments : forall s, bytes_ok (snd s) ->
  GIpv6FragmentHeaderSlice.more_fragments s = Ipv6FragmentHeaderA.more_fragments s.
Proof. acc_eq. Qed.
Lemma gen_frag_identification : forall s, GIpv6FragmentHeaderSlice.identification s = Ipv6FragmentHeaderA.identification s.
Proof. acc_eq. Qed.
Lemma gen_frag_is_fragmenting_payload : forall s, bytes_ok (snd s) ->
  GIpv6FragmentHeaderSlice.is_fragmenting_payload s = Ipv6FragmentHeaderA.is_fragmenting_payload s.
Proof. acc_eq. Qed.

Lemma gen_auth_next_header : forall s, GIpAuthHeaderSlice.next_header s = IpAuthHeaderA.next_header s.
Proof. acc_eq. Qed.
Lemma gen_auth_spi : forall s, GIpAuthHeaderSlice.spi s = IpAuthHeaderA.spi s.
Proof. acc_eq. Qed.
Lemma gen_auth_sequence_number : forall s, GIpAuthHeaderSlice.sequence_number s = IpAuthHeaderA.sequence_number s.
Proof. acc_eq. Qed.

Lemma gen_rawext_next_header : forall s, GIpv6RawExtHeaderSlice.next_header s = Ipv6RawExtHeaderA.next_header s.
Proof. acc_eq. Qed.

Lemma gen_udphdr_source_port : forall s, GUdpHeaderSlice.source_port s = UdpA.source_port s.
Proof. acc_eq. Qed.
Lemma gen_udphdr_destination_port : forall s, GUdpHeaderSlice.destination_port s = UdpA.destination_port s.
Proof. acc_eq. Qed.
Lemma gen_udphdr_length : forall s, GUdpHeaderSlice.length s = UdpA.length s.
Proof. acc_eq. Qed.
Lemma gen_udphdr_checksum : forall s, GUdpHeaderSlice.checksum s = UdpA.checksum s.
Proof. acc_eq. Qed.

Lemma gen_udp_source_port : forall s, GUdpSlice.source_port s = UdpA.source_port s.
Proof. acc_eq. Qed.
Lemma gen_udp_destination_port : forall s, GUdpSlice.destination_port s = UdpA.destination_port s.
Proof. acc_eq. Qed.
Lemma gen_udp_length : forall s, GUdpSlice.length s = UdpA.length s.
Proof. acc_eq. Qed.
Lemma gen_udp_checksum : forall s, GUdpSlice.checksum s = UdpA.checksum s.
Proof. acc_eq. Qed.
Lemma gen_udp_header_len : forall s, GUdpSlice.header_len s = UdpX.header_len s.
Proof. acc_eq. Qed.
Lemma gen_udp_header_len_u16 : forall s, GUdpSlice.header_len_u16 s = UdpX.header_len_u16 s.
Proof. acc_eq. Qed.

Lemma gen_tcphdr_source_port : forall s, GTcpHeaderSlice.source_port s = TcpFieldsA.source_port s.
Proof. acc_eq. Qed.
Lemma gen_tcphdr_destination_port : forall s, GTcpHeaderSlice.destination_port s = TcpFieldsA.destination_port s.
Proof. acc_eq. Qed.
Lemma gen_tcphdr_sequence_number : forall s, GTcpHeaderSlice.sequence_number s = TcpFieldsA.sequence_number s.
Proof. acc_eq. Qed.
Lemma gen_tcphdr_acknowledgment_number : forall s, GTcpHeaderSlice.acknowledgment_number s = TcpFieldsA.acknowledgment_number s.
Proof. acc_eq. Qed.
Lemma gen_tcphdr_data_offset : forall s, bytes_ok (snd s) ->
  GTcpHeaderSlice.data_offset s = TcpFieldsA.data_offset s.
Proof. acc_eq. Qed.
Lemma gen_tcphdr_ns : forall s, bytes_ok (snd s) ->
  GTcpHeaderSlice.ns s = TcpFieldsA.ns s.
Proof. acc_eq. Qed.
Lemma gen_tcphdr_fin : forall s, bytes_ok (snd s) ->
  GTcpHeaderSlice.fin s = TcpFieldsA.fin s.
Proof. acc_eq. Qed.
Lemma gen_tcphdr_syn : forall s, bytes_ok (snd s) ->
  GTcpHeaderSlice.syn s = TcpFieldsA.syn s.
Proof. acc_eq. Qed.
Lemma gen_tcphdr_rst : forall s, bytes_ok (snd s) ->
  GTcpHeaderSlice.rst s = TcpFieldsA.rst s.
Proof. acc_eq. Qed.
Lemma gen_tcphdr_psh : forall s, bytes_ok (snd s) ->
  GTcpHeaderSlice.psh s = TcpFieldsA.psh s.
Proof. acc_eq. Qed.
Lemma gen_tcphdr_ack : forall s, bytes_ok (snd s) ->
  GTcpHeaderSlice.ack s = TcpFieldsA.ack s.
Proof. acc_eq. Qed.
Lemma gen_tcphdr_urg : forall s, bytes_ok (snd s) ->
  GTcpHeaderSlice.urg s = TcpFieldsA.urg s.
Proof. acc_eq. Qed.
Lemma gen_tcphdr_ece : forall s, bytes_ok (snd s) ->
  GTcpHeaderSlice.ece s = TcpFieldsA.ece s.
Proof. acc_eq. Qed.
Lemma gen_tcphdr_cwr : forall s, bytes_ok (snd s) ->
  GTcpHeaderSlice.cwr s = TcpFieldsA.cwr s.
Proof. acc_eq. Qed.
Lemma gen_tcphdr_window_size : forall s, GTcpHeaderSlice.window_size s = TcpFieldsA.window_size s.
Proof. acc_eq. Qed.
Lemma gen_tcphdr_checksum : forall s, GTcpHeaderSlice.checksum s = TcpFieldsA.checksum s.
Proof. acc_eq. Qed.
Lemma gen_tcphdr_urgent_pointer : forall s, GTcpHeaderSlice.urgent_pointer s = TcpFieldsA.urgent_pointer s.
Proof. acc_eq. Qed.

Lemma gen_tcp_source_port : forall s, GTcpSlice.source_port s = TcpFieldsA.source_port s.
Proof. acc_eq. Qed.
Lemma gen_tcp_destination_port : forall s, GTcpSlice.destination_port s = TcpFieldsA.destination_port s.
Proof. acc_eq. Qed.
Lemma gen_tcp_sequence_number : forall s, GTcpSlice.sequence_number s = TcpFieldsA.sequence_number s.
Proof. acc_eq. Qed.
Lemma gen_tcp_acknowledgment_number : forall s, GTcpSlice.acknowledgment_number s = TcpFieldsA.acknowledgment_number s.
Proof. acc_eq. Qed.
Lemma gen_tcp_data_offset : forall s, bytes_ok (snd s) ->
  GTcpSlice.data_offset s = TcpFieldsA.data_offset s.
Proof. acc_eq. Qed.
Lemma gen_tcp_ns : forall s, bytes_ok (snd s) ->
  GTcpSlice.ns s = TcpFieldsA.ns s.
Proof. acc_eq. Qed.
Lemma gen_tcp_fin : forall s, bytes_ok (snd s) ->
  GTcpSlice.fin s = TcpFieldsA.fin s.
Proof. acc_eq. Qed.
Lemma gen_tcp_syn : forall s, bytes_ok (snd s) ->
  GTcpSlice.syn s = TcpFieldsA.syn s.
Proof. acc_eq. Qed.
Lemma gen_tcp_rst : forall s, bytes_ok (snd s) ->
  GTcpSlice.rst s = TcpFieldsA.rst s.
Proof. acc_eq. Qed.
Lemma gen_tcp_psh : forall s, bytes_ok (snd s) ->
  GTcpSlice.psh s = TcpFieldsA.psh s.
Proof. acc_eq. Qed.
Lemma gen_tcp_ack : forall s, bytes_ok (snd s) ->
  GTcpSlice.ack s = TcpFieldsA.ack s.
Proof. acc_eq. Qed.
Lemma gen_tcp_urg : forall s, bytes_ok (snd s) ->
  GTcpSlice.urg s = TcpFieldsA.urg s.
Proof. acc_eq. Qed.
Lemma gen_tcp_ece : forall s, bytes_ok (snd s) ->
  GTcpSlice.ece s = TcpFieldsA.ece s.
Proof. acc_eq. Qed.
Lemma gen_tcp_cwr : forall s, bytes_ok (snd s) ->
  GTcpSlice.cwr s = TcpFieldsA.cwr s.
Proof. acc_eq. Qed.
Lemma gen_tcp_window_size : forall s, GTcpSlice.window_size s = TcpFieldsA.window_size s.
Proof. acc_eq. Qed.
Lemma gen_tcp_checksum : forall s, GTcpSlice.checksum s = TcpFieldsA.checksum s.
Proof. acc_eq. Qed.
Lemma gen_tcp_urgent_pointer : forall s, GTcpSlice.urgent_pointer s = TcpFieldsA.urgent_pointer s.
Proof. acc_eq. Qed.

Lemma gen_icmpv4_type_u8 : forall s, GIcmpv4Slice.type_u8 s = Icmpv4A.type_u8 s.
Proof. acc_eq. Qed.
Lemma gen_icmpv4_code_u8 : forall s, GIcmpv4Slice.code_u8 s = Icmpv4A.code_u8 s.
Proof. acc_eq. Qed.
Lemma gen_icmpv4_checksum : forall s, GIcmpv4Slice.checksum s = Icmpv4A.checksum s.
Proof. acc_eq. Qed.
Lemma gen_icmpv4_bytes5to8 : forall s, GIcmpv4Slice.bytes5to8 s = Icmpv4A.bytes5to8 s.
Proof. acc_eq. Qed.

Lemma gen_icmpv6_type_u8 : forall s, GIcmpv6Slice.type_u8 s = Icmpv6A.type_u8 s.
Proof. acc_eq. Qed.
Lemma gen_icmpv6_code_u8 : forall s, GIcmpv6Slice.code_u8 s = Icmpv6A.code_u8 s.
Proof. acc_eq. Qed.
Lemma gen_icmpv6_checksum : forall s, GIcmpv6Slice.checksum s = Icmpv6A.checksum s.
Proof. acc_eq. Qed.
Lemma gen_icmpv6_bytes5to8 : forall s, GIcmpv6Slice.bytes5to8 s = Icmpv6A.bytes5to8 s.
Proof. acc_eq. Qed.
Lemma gen_icmpv6_header_len : forall s, GIcmpv6Slice.header_len s = Icmpv6X.header_len s.
Proof. acc_eq. Qed.

Lemma gen_access_ok : True.
Proof. exact I. Qed.

(* The decoders of property C15.  BitFields/Model.v is a second, independent
   transliteration of the same accessors (over plain byte lists, with
   `new_unchecked` modelled as a range check that fails with UBRange).  For every
   field C15 decodes, the regenerated accessor equals that decoder on slices of
   bytes; in particular the UBRange outcome is unreachable.
   Not related here (shapes differ too much): V4S_source / V4S_destination /
   V6S_source / V6S_destination (`getu_n` = one bounds test + take/drop, against
   `rd_arr` = n successive reads), V4S_options, MS_ptype, MS_sci, the to_header
   functions (outside the translator's grammar). *)
Definition c15 {A} (r : res A) : BM.res A :=
  match r with
  | Ok a => BM.Val a
  | Err _ => BM.Fail BM.ErrLen
  | Bug _ => BM.Fail BM.OOB
  end.

(* [c15] carries the reads and binds of the slice model to those of BitFields/Model.v *)
Lemma c15_rdU s i : c15 (rdU s i) = BM.getu (snd s) i.
Proof. unfold rdU, BM.getu. now destruct (rd (snd s) i). Qed.

Lemma c15_bind {A B} (r : res A) r' (f : A -> res B) g :
  c15 r = r' -> (forall a, c15 (f a) = g a) -> c15 (bind r f) = BM.bind r' g.
Proof. intros <- H. destruct r; [apply H | reflexivity | reflexivity]. Qed.

Lemma c15_read {B} s i (f : N -> res B) g : bytes_ok (snd s) ->
  (forall b, b < 256 -> c15 (f b) = g b) ->
  c15 (bind (rdU s i) f) = BM.bind (BM.getu (snd s) i) g.
Proof.
  intros Hs H. unfold rdU, BM.getu. destruct (rd (snd s) i) as [b|] eqn:E; [|reflexivity].
  apply H. exact (rd_ok _ _ _ Hs E).
Qed.

(* the range check of a `new_unchecked` model passes *)
Lemma unchecked_val max v : v <= max ->
  BM.Val v = if v <=? max then BM.Val v else BM.Fail BM.UBRange.
Proof. intros H. apply N.leb_le in H. now rewrite H. Qed.

Lemma land_le a m : N.land a m <= m.
Proof.
  apply N.ldiff_le, N.bits_inj_0. intros n.
  rewrite N.ldiff_spec, N.land_spec. now destruct (N.testbit m n), (N.testbit a n).
Qed.

Lemma shiftr_le a k m : a < 2 ^ k * (m + 1) -> N.shiftr a k <= m.
Proof.
  intros H. rewrite N.shiftr_div_pow2. apply N.lt_succ_r. rewrite <- N.add_1_r.
  apply N.div_lt_upper_bound; [now apply N.pow_nonzero | exact H].
Qed.

Lemma be16_masked_le a b m : b < 256 -> be16 (N.land a m) b <= be16 m 255.
Proof. intros Hb. pose proof (land_le a m). unfold be16. lia. Qed.

(* [c15_via L], [L] the lemma above for the same accessor: introduce [s] and
   [Hs : bytes_ok (snd s)], pass to the hand model by [L], then pair off the reads
   of the two hand-written models one by one.  What is left relates the values
   computed from the bytes read: they are the same term, or the decoder also checks
   a range that the masks and shifts guarantee. *)
Ltac c15_reads Hs := repeat (apply c15_read; [exact Hs | intros ? ?]).
Tactic Notation "c15_via" constr(L) :=
  intros s Hs; rewrite L by exact Hs; c15_reads Hs.

Lemma c15_traffic_class s : bytes_ok (snd s) ->
  c15 (Ipv6HeaderA.traffic_class s) = BM.V6S_traffic_class (snd s).
Proof. intros Hs. c15_reads Hs. reflexivity. Qed.

Lemma gen_c15_vlan_priority_code_point : forall s, bytes_ok (snd s) ->
  c15 (GSingleVlanSlice.priority_code_point s) = BM.VS_priority_code_point (snd s).
Proof. c15_via gen_vlan_priority_code_point. apply unchecked_val, land_le. Qed.
Lemma gen_c15_vlan_drop_eligible_indicator : forall s, bytes_ok (snd s) ->
  c15 (GSingleVlanSlice.drop_eligible_indicator s) = BM.VS_drop_eligible_indicator (snd s).
Proof. c15_via gen_vlan_drop_eligible_indicator. reflexivity. Qed.
Lemma gen_c15_vlan_vlan_identifier : forall s, bytes_ok (snd s) ->
  c15 (GSingleVlanSlice.vlan_identifier s) = BM.VS_vlan_identifier (snd s).
Proof.
  c15_via gen_vlan_vlan_identifier.
  apply unchecked_val, (be16_masked_le _ _ 15). assumption.
Qed.
Lemma gen_c15_vlan_ether_type : forall s, bytes_ok (snd s) ->
  c15 (GSingleVlanSlice.ether_type s) = BM.VS_ether_type (snd s).
Proof. c15_via gen_vlan_ether_type. reflexivity. Qed.
Lemma gen_c15_vlanhdr_priority_code_point : forall s, bytes_ok (snd s) ->
  c15 (GSingleVlanHeaderSlice.priority_code_point s) = BM.VHS_priority_code_point (snd s).
Proof. c15_via gen_vlanhdr_priority_code_point. apply unchecked_val, land_le. Qed.
Lemma gen_c15_vlanhdr_drop_eligible_indicator : forall s, bytes_ok (snd s) ->
  c15 (GSingleVlanHeaderSlice.drop_eligible_indicator s) = BM.VHS_drop_eligible_indicator (snd s).
Proof. c15_via gen_vlanhdr_drop_eligible_indicator. reflexivity. Qed.
Lemma gen_c15_vlanhdr_vlan_identifier : forall s, bytes_ok (snd s) ->
  c15 (GSingleVlanHeaderSlice.vlan_identifier s) = BM.VHS_vlan_identifier (snd s).
Proof.
  c15_via gen_vlanhdr_vlan_identifier.
  apply unchecked_val, (be16_masked_le _ _ 15). assumption.
Qed.
Lemma gen_c15_vlanhdr_ether_type : forall s, bytes_ok (snd s) ->
  c15 (GSingleVlanHeaderSlice.ether_type s) = BM.VHS_ether_type (snd s).
Proof. c15_via gen_vlanhdr_ether_type. reflexivity. Qed.
Lemma gen_c15_ipv4_dcp : forall s, bytes_ok (snd s) ->
  c15 (GIpv4HeaderSlice.dcp s) = BM.V4S_dcp (snd s).
Proof. c15_via gen_ipv4_dcp. apply unchecked_val, shiftr_le. assumption. Qed.
Lemma gen_c15_ipv4_ecn : forall s, bytes_ok (snd s) ->
  c15 (GIpv4HeaderSlice.ecn s) = BM.V4S_ecn (snd s).
Proof. c15_via gen_ipv4_ecn. apply unchecked_val, land_le. Qed.
Lemma gen_c15_ipv4_total_len : forall s, bytes_ok (snd s) ->
  c15 (GIpv4HeaderSlice.total_len s) = BM.V4S_total_len (snd s).
Proof. c15_via gen_ipv4_total_len. reflexivity. Qed.
Lemma gen_c15_ipv4_identification : forall s, bytes_ok (snd s) ->
  c15 (GIpv4HeaderSlice.identification s) = BM.V4S_identification (snd s).
Proof. c15_via gen_ipv4_identification. reflexivity. Qed.
Lemma gen_c15_ipv4_dont_fragment : forall s, bytes_ok (snd s) ->
  c15 (GIpv4HeaderSlice.dont_fragment s) = BM.V4S_dont_fragment (snd s).
Proof. c15_via gen_ipv4_dont_fragment. reflexivity. Qed.
Lemma gen_c15_ipv4_more_fragments : forall s, bytes_ok (snd s) ->
  c15 (GIpv4HeaderSlice.more_fragments s) = BM.V4S_more_fragments (snd s).
Proof. c15_via gen_ipv4_more_fragments. reflexivity. Qed.
Lemma gen_c15_ipv4_fragments_offset : forall s, bytes_ok (snd s) ->
  c15 (GIpv4HeaderSlice.fragments_offset s) = BM.V4S_fragments_offset (snd s).
Proof.
  c15_via gen_ipv4_fragments_offset.
  apply unchecked_val, (be16_masked_le _ _ 31). assumption.
Qed.
Lemma gen_c15_ipv4_ttl : forall s, bytes_ok (snd s) ->
  c15 (GIpv4HeaderSlice.ttl s) = BM.V4S_ttl (snd s).
Proof. c15_via gen_ipv4_ttl. apply c15_rdU. Qed.
Lemma gen_c15_ipv4_protocol : forall s, bytes_ok (snd s) ->
  c15 (GIpv4HeaderSlice.protocol s) = BM.V4S_protocol (snd s).
Proof. c15_via gen_ipv4_protocol. apply c15_rdU. Qed.
Lemma gen_c15_ipv4_header_checksum : forall s, bytes_ok (snd s) ->
  c15 (GIpv4HeaderSlice.header_checksum s) = BM.V4S_header_checksum (snd s).
Proof. c15_via gen_ipv4_header_checksum. reflexivity. Qed.
Lemma gen_c15_ipv6_traffic_class : forall s, bytes_ok (snd s) ->
  c15 (GIpv6HeaderSlice.traffic_class s) = BM.V6S_traffic_class (snd s).
Proof. intros s Hs. rewrite gen_ipv6_traffic_class by exact Hs. exact (c15_traffic_class s Hs). Qed.
Lemma gen_c15_ipv6_ecn : forall s, bytes_ok (snd s) ->
  c15 (GIpv6HeaderSlice.ecn s) = BM.V6S_ecn (snd s).
Proof.
  c15_via gen_ipv6_ecn. apply c15_bind; [exact (c15_traffic_class s Hs) | intros tc].
  apply unchecked_val, land_le.
Qed.
Lemma gen_c15_ipv6_dscp : forall s, bytes_ok (snd s) ->
  c15 (GIpv6HeaderSlice.dscp s) = BM.V6S_dscp (snd s).
Proof.
  c15_via gen_ipv6_dscp. apply c15_bind; [exact (c15_traffic_class s Hs) | intros tc].
  apply unchecked_val, land_le.
Qed.
Lemma gen_c15_ipv6_payload_length : forall s, bytes_ok (snd s) ->
  c15 (GIpv6HeaderSlice.payload_length s) = BM.V6S_payload_length (snd s).
Proof. c15_via gen_ipv6_payload_length. reflexivity. Qed.
Lemma gen_c15_ipv6_next_header : forall s, bytes_ok (snd s) ->
  c15 (GIpv6HeaderSlice.next_header s) = BM.V6S_next_header (snd s).
Proof. c15_via gen_ipv6_next_header. apply c15_rdU. Qed.
Lemma gen_c15_ipv6_hop_limit : forall s, bytes_ok (snd s) ->
  c15 (GIpv6HeaderSlice.hop_limit s) = BM.V6S_hop_limit (snd s).
Proof. c15_via gen_ipv6_hop_limit. apply c15_rdU. Qed.
Lemma gen_c15_frag_next_header : forall s, bytes_ok (snd s) ->
  c15 (GIpv6FragmentHeaderSlice.next_header s) = BM.FRS_next_header (snd s).
Proof. c15_via gen_frag_next_header. apply c15_rdU. Qed.
Lemma gen_c15_frag_fragment_offset : forall s, bytes_ok (snd s) ->
  c15 (GIpv6FragmentHeaderSlice.fragment_offset s) = BM.FRS_fragment_offset (snd s).
Proof.
  c15_via gen_frag_fragment_offset. apply unchecked_val, shiftr_le.
  unfold be16, BM.IpFragOffset_MAX_U16. lia.
Qed.
Lemma gen_c15_frag_more_fragments : forall s, bytes_ok (snd s) ->
  c15 (GIpv6FragmentHeaderSlice.more_fragments s) = BM.FRS_more_fragments (snd s).
Proof. c15_via gen_frag_more_fragments. reflexivity. Qed.
Lemma gen_c15_frag_identification : forall s, bytes_ok (snd s) ->
  c15 (GIpv6FragmentHeaderSlice.identification s) = BM.FRS_identification (snd s).
Proof. c15_via gen_frag_identification. reflexivity. Qed.
Lemma gen_c15_macsec_endstation_id : forall s, bytes_ok (snd s) ->
  c15 (GMacsecHeaderSlice.endstation_id s) = BM.MS_endstation_id (snd s).
Proof. c15_via gen_macsec_endstation_id. reflexivity. Qed.
Lemma gen_c15_macsec_tci_scb : forall s, bytes_ok (snd s) ->
  c15 (GMacsecHeaderSlice.tci_scb s) = BM.MS_tci_scb (snd s).
Proof. c15_via gen_macsec_tci_scb. reflexivity. Qed.
Lemma gen_c15_macsec_encrypted : forall s, bytes_ok (snd s) ->
  c15 (GMacsecHeaderSlice.encrypted s) = BM.MS_encrypted (snd s).
Proof. c15_via gen_macsec_encrypted. reflexivity. Qed.
Lemma gen_c15_macsec_userdata_changed : forall s, bytes_ok (snd s) ->
  c15 (GMacsecHeaderSlice.userdata_changed s) = BM.MS_userdata_changed (snd s).
Proof. c15_via gen_macsec_userdata_changed. reflexivity. Qed.
Lemma gen_c15_macsec_sci_present : forall s, bytes_ok (snd s) ->
  c15 (GMacsecHeaderSlice.sci_present s) = BM.MS_sci_present (snd s).
Proof. c15_via gen_macsec_sci_present. reflexivity. Qed.
Lemma gen_c15_macsec_an : forall s, bytes_ok (snd s) ->
  c15 (GMacsecHeaderSlice.an s) = BM.MS_an (snd s).
Proof. c15_via gen_macsec_an. apply unchecked_val, land_le. Qed.
Lemma gen_c15_macsec_short_len : forall s, bytes_ok (snd s) ->
  c15 (GMacsecHeaderSlice.short_len s) = BM.MS_short_len (snd s).
Proof. c15_via gen_macsec_short_len. apply unchecked_val, land_le. Qed.
Lemma gen_c15_macsec_packet_nr : forall s, bytes_ok (snd s) ->
  c15 (GMacsecHeaderSlice.packet_nr s) = BM.MS_packet_nr (snd s).
Proof. c15_via gen_macsec_packet_nr. reflexivity. Qed.

Lemma gen_c15_ipv6_flow_label : forall s, bytes_ok (snd s) ->
  c15 (GIpv6HeaderSlice.flow_label s) = BM.V6S_flow_label (snd s).
Proof.
  intros s Hs. rewrite gen_ipv6_flow_label by exact Hs.
  apply c15_read; [exact Hs | intros a _].
  apply c15_read; [exact Hs | intros b Hb].
  apply c15_read; [exact Hs | intros c Hc].
  apply unchecked_val. pose proof (land_le a 15).
  unfold be32, BM.Ipv6FlowLabel_MAX_U32. lia.
Qed.

Lemma gen_access_c15_ok : True.
Proof. exact I. Qed.
