(* Parse/WireSpecFacts.v -- facts ABOUT the reference decoder (Parse/WireSpec.v), for
   every byte string and all four entry points:

   * `wire_err_classes`: every rejection of the reference decoder falls in one of
     six classes, the one computed by `classify bs err` from the error and the bytes at the
     failing layer's offset: header cut short | a length field claims more than is
     present | a length field is smaller than its own header | a listed content rule |
     the ICMPv4 timestamp size rule | ICMPv6 longer than 2^32-1.
   * `wire_len_direction`: `required > len` for every length error, except the two
     "oversized" rules (ICMPv4 timestamp / timestamp reply: required = 20, len <> 20;
     ICMPv6: required = 2^32-1 < len). *)
From EP Require Import Base.Bytes Parse.Types Parse.View Parse.WireSpec.
From Coq Require Import ZArith Lia ZifyN ZifyBool.

Local Open Scope N_scope.

Inductive err_class :=
| EcHeaderCut             (* a header is cut short: fewer bytes before the limit than the
                             fixed part / the length the header itself announces *)
| EcLenFieldBeyond        (* a length field claims more bytes than are present *)
| EcLenFieldBelowHeader   (* a length field is smaller than its own header *)
| EcContentRule           (* one of the listed content rules *)
| EcIcmpv4TimestampSize   (* ICMPv4 timestamp / timestamp reply that is not 20 bytes *)
| EcIcmpv6TooLong.        (* ICMPv6 longer than 2^32-1 bytes *)

Definition sel (b : bool) (c : err_class) : option err_class := if b then Some c else None.

(* SecTAG length from the TCI octet: 6, + 2 (ether type of an unmodified frame), + 8 (SCI) *)
Definition macsec_hl (tci : N) : N :=
  6 + (if (tci / 4) mod 4 =? 0 then 2 else 0) + (if negb ((tci / 32) mod 2 =? 0) then 8 else 0).
(* octets behind the SecTAG announced by a non-zero short length *)
Definition macsec_body (tci sl : N) : N := if (tci / 4) mod 4 =? 0 then sl - 2 else sl.

(* Inversion of the reference decoder.  One equivalence per decoder function: it accepts with
   view v exactly when the layer facts hold and the next function returns v.  What WireNested,
   WireDesc, WireDispatch and WireAccepts say about accepted views goes through these. *)
Section Inversion.
  Variable bs : bytes.
  Local Notation B := (B bs).
  Local Notation W := (W bs).

  Lemma err_ok_iff e v (P : Prop) : (P -> False) -> VErr e = VOk v <-> P.
  Proof. split; [discriminate|contradiction]. Qed.
  Lemma ok_ok_iff x v : VOk x = VOk v <-> v = x.
  Proof. split; [intros [= <-]|intros ->]; reflexivity. Qed.

  (* the transport layer t announced by IP number ipn fills / starts the a octets at pos *)
  Definition tr_at (ipn pos a : N) (t : vtransport) : Prop :=
    match t with
    | VIcmpv4 w => ipn = 1 /\ w = (pos, a) /\ 8 <= a /\
                   ((B pos = 13 \/ B pos = 14) -> B (pos + 1) = 0 -> a = 20)
    | VUdp w => ipn = 17 /\ fst w = pos /\ 8 <= snd w <= a /\
                (W (pos + 4) = 0 -> snd w = a) /\ (0 < W (pos + 4) -> snd w = W (pos + 4))
    | VTcp hl w => ipn = 6 /\ w = (pos, a) /\ hl = B (pos + 12) / 16 * 4 /\ 20 <= hl <= a
    | VIcmpv6 w => ipn = 58 /\ w = (pos, a) /\ 8 <= a <= 4294967295
    end.

  Definition tr_layer (ipn : N) (p : vpacket) (pos a : N) (v : vpacket) : Prop :=
    exists t, v = with_tr p t /\ tr_at ipn pos a t.

  Lemma wire_udp_iff p src pos lim v :
    wire_udp bs p src pos lim = VOk v <-> tr_layer 17 p pos (lim - pos) v.
  Proof.
    unfold wire_udp, cut, tr_layer. cbv zeta.
    destruct (N.ltb_spec (lim - pos) 8) as [E1|E1].
    { apply err_ok_iff. intros ([] & _ & H); cbn [tr_at] in H; lia. }
    destruct (N.ltb_spec (lim - pos) (W (pos + 4))) as [E2|E2].
    { apply err_ok_iff. intros ([] & _ & H); cbn [tr_at] in H; lia. }
    destruct (N.eqb_spec (W (pos + 4)) 0) as [E3|E3].
    { rewrite ok_ok_iff. split.
      - intros ->. eexists. split; [reflexivity|]. cbn [tr_at fst snd]. repeat split; lia.
      - intros ([[o l]| | |] & -> & H); cbn [tr_at fst snd] in H; try lia.
        destruct H as (_ & -> & _ & H & _). rewrite (H E3). reflexivity. }
    destruct (N.ltb_spec (W (pos + 4)) 8) as [E4|E4].
    { apply err_ok_iff. intros ([] & _ & H); cbn [tr_at] in H; lia. }
    rewrite ok_ok_iff. split.
    - intros ->. eexists. split; [reflexivity|]. cbn [tr_at fst snd]. repeat split; lia.
    - intros ([[o l]| | |] & -> & H); cbn [tr_at fst snd] in H; try lia.
      destruct H as (_ & -> & _ & _ & H). rewrite H by lia. reflexivity.
  Qed.

  Lemma wire_tcp_iff p src pos lim v :
    wire_tcp bs p src pos lim = VOk v <-> tr_layer 6 p pos (lim - pos) v.
  Proof.
    unfold wire_tcp, cut, bad, tr_layer. cbv zeta.
    destruct (N.ltb_spec (lim - pos) 20) as [E1|E1].
    { apply err_ok_iff. intros ([] & _ & H); cbn [tr_at] in H; lia. }
    destruct (N.ltb_spec (B (pos + 12) / 16) 5) as [E2|E2].
    { apply err_ok_iff. intros ([] & _ & H); cbn [tr_at] in H; lia. }
    destruct (N.ltb_spec (lim - pos) (B (pos + 12) / 16 * 4)) as [E3|E3].
    { apply err_ok_iff. intros ([] & _ & H); cbn [tr_at] in H; lia. }
    rewrite ok_ok_iff. split.
    - intros ->. eexists. split; [reflexivity|]. cbn [tr_at]. repeat split; lia.
    - intros ([| | |] & -> & H); cbn [tr_at] in H; try lia.
      destruct H as (_ & -> & -> & _). reflexivity.
  Qed.

  Lemma wire_icmp4_iff p src pos lim v :
    wire_icmp4 bs p src pos lim = VOk v <-> tr_layer 1 p pos (lim - pos) v.
  Proof.
    unfold wire_icmp4, cut, tr_layer. cbv zeta.
    destruct (N.ltb_spec (lim - pos) 8) as [E1|E1].
    { apply err_ok_iff. intros ([] & _ & H); cbn [tr_at] in H; lia. }
    destruct ((B pos =? 13) && (B (pos + 1) =? 0) && negb (lim - pos =? 20)) eqn:E2.
    { apply err_ok_iff. intros ([] & _ & H); cbn [tr_at] in H; lia. }
    destruct ((B pos =? 14) && (B (pos + 1) =? 0) && negb (lim - pos =? 20)) eqn:E3.
    { apply err_ok_iff. intros ([] & _ & H); cbn [tr_at] in H; lia. }
    rewrite ok_ok_iff. split.
    - intros ->. eexists. split; [reflexivity|]. cbn [tr_at]. repeat split; lia.
    - intros ([| | |] & -> & H); cbn [tr_at] in H; try lia.
      destruct H as (_ & -> & _). reflexivity.
  Qed.

  Lemma wire_icmp6_iff p src pos lim v :
    wire_icmp6 p src pos lim = VOk v <-> tr_layer 58 p pos (lim - pos) v.
  Proof.
    unfold wire_icmp6, cut, tr_layer. cbv zeta.
    destruct (N.ltb_spec (lim - pos) 8) as [E1|E1].
    { apply err_ok_iff. intros ([] & _ & H); cbn [tr_at] in H; lia. }
    destruct (N.ltb_spec 4294967295 (lim - pos)) as [E2|E2].
    { apply err_ok_iff. intros ([] & _ & H); cbn [tr_at] in H; lia. }
    rewrite ok_ok_iff. split.
    - intros ->. eexists. split; [reflexivity|]. cbn [tr_at]. repeat split; lia.
    - intros ([| | |] & -> & H); cbn [tr_at] in H; try lia.
      destruct H as (_ & -> & _). reflexivity.
  Qed.

  Lemma tr_at_num ipn pos a t : tr_at ipn pos a t -> ipn = 1 \/ ipn = 17 \/ ipn = 6 \/ ipn = 58.
  Proof. destruct t; cbn [tr_at]; lia. Qed.

  (* a transport layer is decoded exactly behind an unfragmented payload with one of the four numbers *)
  Lemma wire_transport_iff p ipn frag src pos lim v :
    wire_transport bs p ipn frag src pos lim = VOk v <->
    (v = p /\ (frag = true \/ ~ (ipn = 1 \/ ipn = 17 \/ ipn = 6 \/ ipn = 58))) \/
    (frag = false /\ tr_layer ipn p pos (lim - pos) v).
  Proof.
    set (T := ipn = 1 \/ ipn = 17 \/ ipn = 6 \/ ipn = 58).
    assert (G : forall P : Prop, T -> P <-> (v = p /\ (false = true \/ ~ T)) \/ (false = false /\ P)).
    { intros P Hn. split; [auto|]. intros [(_ & [H|H])|(_ & H)]; [discriminate|contradiction|exact H]. }
    unfold wire_transport.
    destruct frag. { rewrite ok_ok_iff. split; [auto|]. intros [(H & _)|(H & _)]; [exact H|discriminate]. }
    destruct (N.eqb_spec ipn 1) as [->|N1]. { rewrite wire_icmp4_iff. apply G. unfold T. lia. }
    destruct (N.eqb_spec ipn 17) as [->|N2]. { rewrite wire_udp_iff. apply G. unfold T. lia. }
    destruct (N.eqb_spec ipn 6) as [->|N3]. { rewrite wire_tcp_iff. apply G. unfold T. lia. }
    destruct (N.eqb_spec ipn 58) as [->|N4]. { rewrite wire_icmp6_iff. apply G. unfold T. lia. }
    rewrite ok_ok_iff. split.
    - intros ->. left. split; [reflexivity|]. right. unfold T. lia.
    - intros [(H & _)|(_ & t & _ & H)]; [exact H|]. apply tr_at_num in H. lia.
  Qed.

  Lemma wire_ah_iff zero src pos lim l next :
    wire_ah bs zero src pos lim = AhOk l next <->
    l = (B (pos + 1) + 2) * 4 /\ next = B pos /\ B (pos + 1) <> 0 /\ l <= lim - pos.
  Proof.
    unfold wire_ah. cbv zeta.
    destruct (N.ltb_spec (lim - pos) 12); [split; [discriminate|lia]|].
    destruct (N.eqb_spec (B (pos + 1)) 0); [split; [discriminate|lia]|].
    destruct (N.ltb_spec (lim - pos) ((B (pos + 1) + 2) * 4)); [split; [discriminate|lia]|].
    split; [intros [= <- <-]; auto|intros (-> & -> & _); reflexivity].
  Qed.

  (* a header inside the network layer cut short: the data from its offset o up to lim holds fewer
     octets than its fixed part, or than the length it announces *)
  Definition hdr_fault (src : len_source) (pos lim : N) (r : vres) : Prop :=
    exists o req ly,
      r = cut req (lim - o) src ly o /\ pos <= o /\ (pos <= lim -> o <= lim) /\ lim - o < req /\
      ((ly = LyIpv6ExtHeader /\ (req = 8 \/ req = (B (o + 1) + 1) * 8)) \/
       (ly = LyIpv6FragHeader /\ req = 8) \/
       (ly = LyIpAuthHeader /\ (req = 12 \/ req = (B (o + 1) + 2) * 4))).

  Lemma hdr_fault_here src pos lim req ly :
    lim - pos < req ->
    (ly = LyIpv6ExtHeader /\ (req = 8 \/ req = (B (pos + 1) + 1) * 8)) \/
    (ly = LyIpv6FragHeader /\ req = 8) \/
    (ly = LyIpAuthHeader /\ (req = 12 \/ req = (B (pos + 1) + 2) * 4)) ->
    hdr_fault src pos lim (cut req (lim - pos) src ly pos).
  Proof. intros Hl Hs. exists pos, req, ly. repeat split; auto; lia. Qed.

  Lemma hdr_fault_from src pos pos' lim r :
    pos <= pos' -> pos' <= lim -> hdr_fault src pos' lim r -> hdr_fault src pos lim r.
  Proof.
    intros H1 H2 (o & req & ly & -> & Ho & Hl & Hs). exists o, req, ly. repeat split; auto; try lia. apply Hs.
  Qed.

  Lemma hdr_fault_err src pos lim r : hdr_fault src pos lim r -> forall v, r <> VOk v.
  Proof. intros (o & req & ly & -> & _). discriminate. Qed.

  Lemma wire_ah_fault zero src pos lim r :
    wire_ah bs zero src pos lim = AhErr r -> r = bad zero \/ hdr_fault src pos lim r.
  Proof.
    unfold wire_ah. cbv zeta.
    destruct (N.ltb_spec (lim - pos) 12); [intros [= <-]; right; apply hdr_fault_here; auto 6|].
    destruct (B (pos + 1) =? 0); [intros [= <-]; left; reflexivity|].
    destruct (N.ltb_spec (lim - pos) ((B (pos + 1) + 2) * 4)); [|discriminate].
    intros [= <-]. right. apply hdr_fault_here; auto 6.
  Qed.

  Lemma wire_ah_err zero src pos lim r :
    wire_ah bs zero src pos lim = AhErr r -> forall v, r <> VOk v.
  Proof.
    intros H. apply wire_ah_fault in H. destruct H as [->|H]; [discriminate|exact (hdr_fault_err _ _ _ _ H)].
  Qed.

  (* behind the IPv4 header at pos (hl octets, data up to lim'): an authentication header exactly for
     protocol 51, then the payload at ppos with number next *)
  Definition ipv4_auth (pos hl lim' : N) (auth : option window) (ppos next : N) : Prop :=
    match auth with
    | Some a => B (pos + 9) = 51 /\ a = (pos + hl, (B (pos + hl + 1) + 2) * 4) /\ B (pos + hl + 1) <> 0 /\
                ppos = pos + hl + snd a /\ ppos <= lim' /\ next = B (pos + hl)
    | None => B (pos + 9) <> 51 /\ ppos = pos + hl /\ next = B (pos + 9)
    end.

  Lemma wire_ipv4_body_iff p src pos lim hl v :
    wire_ipv4_body bs p src pos lim hl = VOk v <->
    hl <= W (pos + 2) <= lim - pos /\
    exists auth ppos next, ipv4_auth pos hl (pos + W (pos + 2)) auth ppos next /\
      wire_transport bs
        (with_net p (VIpv4 (pos, hl) auth
           (mkVIp next (ipv4_fragmented bs pos) LsIpv4HeaderTotalLen (ppos, pos + W (pos + 2) - ppos))))
        next (ipv4_fragmented bs pos) LsIpv4HeaderTotalLen ppos (pos + W (pos + 2)) = VOk v.
  Proof.
    unfold wire_ipv4_body, cut. cbv zeta.
    destruct (N.ltb_spec (W (pos + 2)) hl); [split; [discriminate|lia]|].
    destruct (N.ltb_spec (lim - pos) (W (pos + 2))); [split; [discriminate|lia]|].
    unfold wire_ipv4_tail. cbv zeta. set (lim' := pos + W (pos + 2)).
    destruct (N.eqb_spec (B (pos + 9)) 51) as [E|E].
    - destruct (wire_ah bs CeAuthZeroPayloadLen LsIpv4HeaderTotalLen (pos + hl) lim') as [l nx|r] eqn:Ea.
      + apply wire_ah_iff in Ea. destruct Ea as (El & -> & Hz & Hl). split.
        * intros Hw. split; [lia|]. exists (Some (pos + hl, l)), (pos + hl + l), (B (pos + hl)).
          split; [|exact Hw]. cbn [ipv4_auth snd]. rewrite <- El. repeat split; auto; lia.
        * intros (_ & [a|] & ppos & next & Ha & Hw); cbn [ipv4_auth] in Ha; [|lia].
          destruct Ha as (_ & -> & _ & -> & _ & ->). cbn [snd] in Hw. rewrite <- El in Hw. exact Hw.
      + split; [intros ->; elim (wire_ah_err _ _ _ _ _ Ea v eq_refl)|].
        intros (_ & [a|] & ppos & next & Ha & _); cbn [ipv4_auth] in Ha; [|lia].
        destruct Ha as (_ & -> & Hz & -> & Hl & _). cbn [snd] in Hl.
        assert (X : wire_ah bs CeAuthZeroPayloadLen LsIpv4HeaderTotalLen (pos + hl) lim'
                    = AhOk ((B (pos + hl + 1) + 2) * 4) (B (pos + hl))) by (apply wire_ah_iff; repeat split; auto; lia).
        congruence.
    - split.
      + intros Hw. split; [lia|]. exists None, (pos + hl), (B (pos + 9)). split; [|exact Hw].
        cbn [ipv4_auth]. auto.
      + intros (_ & [a|] & ppos & next & Ha & Hw); cbn [ipv4_auth] in Ha; [lia|].
        destruct Ha as (_ & -> & ->). exact Hw.
  Qed.

  Lemma wire_ipv4_iff p src pos lim v :
    wire_ipv4 bs p src pos lim = VOk v <->
    B pos / 16 = 4 /\ 5 <= B pos mod 16 /\ B pos mod 16 * 4 <= lim - pos /\
    wire_ipv4_body bs p src pos lim (B pos mod 16 * 4) = VOk v.
  Proof.
    unfold wire_ipv4, cut, bad. cbv zeta.
    destruct (N.ltb_spec (lim - pos) 20); [split; [discriminate|lia]|].
    destruct (N.eqb_spec (B pos / 16) 4); cbn [negb]; [|split; [discriminate|lia]].
    destruct (N.ltb_spec (B pos mod 16) 5); [split; [discriminate|lia]|].
    destruct (N.ltb_spec (lim - pos) (B pos mod 16 * 4)); [split; [discriminate|lia]|].
    split; [auto|]. intros Hv. apply Hv.
  Qed.

  (* one extension header of kind nh at pos: its length, and the fragmentation flag behind it;
     `first`: the header is announced by the IPv6 header itself (the only place for number 0) *)
  Definition chain_hdr (first : bool) (nh pos l : N) (frag frag' : bool) : Prop :=
    ((nh = 60 \/ nh = 43 \/ (nh = 0 /\ first = true)) /\ l = (B (pos + 1) + 1) * 8 /\ frag' = frag) \/
    (nh = 44 /\ l = 8 /\
     frag' = frag || (negb (B (pos + 3) mod 2 =? 0) || negb (W (pos + 2) / 8 =? 0))) \/
    (nh = 51 /\ l = (B (pos + 1) + 2) * 4 /\ B (pos + 1) <> 0 /\ frag' = frag).

  Lemma chain_hdr_len first nh pos l frag frag' : chain_hdr first nh pos l frag frag' -> 8 <= l.
  Proof. unfold chain_hdr. lia. Qed.

  Lemma wire_chain_iff f src pos lim nh frag e nx fr :
    wire_chain bs (S f) src pos lim nh frag = ChOk e nx fr <->
    (~ (nh = 0 \/ nh = 43 \/ nh = 44 \/ nh = 51 \/ nh = 60) /\ e = pos /\ nx = nh /\ fr = frag) \/
    exists l frag', chain_hdr false nh pos l frag frag' /\ l <= lim - pos /\
      wire_chain bs f src (pos + l) lim (B pos) frag' = ChOk e nx fr.
  Proof.
    cbn [wire_chain]. cbv zeta. unfold chain_hdr.
    destruct (N.eqb_spec nh 0) as [N0|N0].
    { split; [discriminate|]. intros [K|(l & frag' & K & _)]; lia. }
    destruct ((nh =? 60) || (nh =? 43)) eqn:Nr.
    { destruct (N.ltb_spec (lim - pos) 8).
      { split; [discriminate|]. intros [K|(l & frag' & K & Kl & _)]; lia. }
      destruct (N.ltb_spec (lim - pos) ((B (pos + 1) + 1) * 8)).
      { split; [discriminate|]. intros [K|(l & frag' & K & Kl & _)]; lia. }
      split.
      - intros Hc. right. exists ((B (pos + 1) + 1) * 8), frag. split; [left; lia|]. split; [lia|exact Hc].
      - intros [K|(l & frag' & [(_ & -> & ->)|K] & _ & Hc)]; [lia|exact Hc|lia]. }
    destruct (N.eqb_spec nh 44) as [N44|N44].
    { destruct (N.ltb_spec (lim - pos) 8).
      { split; [discriminate|]. intros [K|(l & frag' & K & Kl & _)]; lia. }
      split.
      - intros Hc. right. eexists 8, _. split; [right; left; split; [exact N44|split; reflexivity]|].
        split; [lia|exact Hc].
      - intros [K|(l & frag' & [K|[(_ & -> & ->)|K]] & _ & Hc)]; [lia|lia|exact Hc|lia]. }
    destruct (N.eqb_spec nh 51) as [N51|N51].
    { destruct (wire_ah bs CeIpv6AuthZeroPayloadLen src pos lim) as [l nx'|r] eqn:Ea.
      - apply wire_ah_iff in Ea. destruct Ea as (El & -> & Hz & Kl). split.
        + intros Hc. right. exists l, frag. split; [right; right; auto|]. split; [exact Kl|exact Hc].
        + intros [K|(l' & frag' & [K|[K|(_ & El' & _ & ->)]] & _ & Hc)]; [lia|lia|lia|].
          rewrite El, <- El'. exact Hc.
      - split; [discriminate|].
        intros [K|(l' & frag' & [K|[K|(_ & El' & Hz & _)]] & Kl & _)]; [lia|lia|lia|].
        assert (X : wire_ah bs CeIpv6AuthZeroPayloadLen src pos lim = AhOk l' (B pos))
          by (apply wire_ah_iff; auto).
        congruence. }
    split.
    - intros [= <- <- <-]. left. split; [lia|auto].
    - intros [(_ & -> & -> & ->)|(l & frag' & K & _)]; [reflexivity|lia].
  Qed.

  Lemma wire_exts_iff fuel src pos lim nh e nx fr :
    wire_exts bs fuel src pos lim nh = ChOk e nx fr <->
    (nh = 0 /\ (B (pos + 1) + 1) * 8 <= lim - pos /\
     wire_chain bs fuel src (pos + (B (pos + 1) + 1) * 8) lim (B pos) false = ChOk e nx fr) \/
    (nh <> 0 /\ wire_chain bs fuel src pos lim nh false = ChOk e nx fr).
  Proof.
    unfold wire_exts. cbv zeta.
    destruct (N.eqb_spec nh 0) as [N0|N0]; [|split; [auto|intros [K|K]; [lia|apply K]]].
    destruct (N.ltb_spec (lim - pos) 8); [split; [discriminate|lia]|].
    destruct (N.ltb_spec (lim - pos) ((B (pos + 1) + 1) * 8)); [split; [discriminate|lia]|].
    split; [intros Hc; left; auto|intros [Hc|Hc]; [apply Hc|lia]].
  Qed.

  (* the ways the extension chain behind pos rejects *)
  Definition chain_fault (src : len_source) (pos lim : N) (r : vres) : Prop :=
    r = VBug SITE_FUEL \/ r = bad CeHopByHopNotAtStart \/ r = bad CeIpv6AuthZeroPayloadLen \/
    hdr_fault src pos lim r.

  Lemma chain_fault_from src pos pos' lim r :
    pos <= pos' -> pos' <= lim -> chain_fault src pos' lim r -> chain_fault src pos lim r.
  Proof.
    intros H1 H2 [H|[H|[H|H]]]; unfold chain_fault; auto. right; right; right.
    exact (hdr_fault_from _ _ _ _ _ H1 H2 H).
  Qed.

  Lemma wire_chain_fault : forall fuel src pos lim nh frag r,
    wire_chain bs fuel src pos lim nh frag = ChErr r -> chain_fault src pos lim r.
  Proof.
    induction fuel as [|f IH]; intros src pos lim nh frag r; cbn [wire_chain]; cbv zeta; unfold chain_fault.
    { intros [= <-]. auto. }
    destruct (nh =? 0). { intros [= <-]. auto. }
    destruct ((nh =? 60) || (nh =? 43)).
    { destruct (N.ltb_spec (lim - pos) 8); [intros [= <-]; right; right; right; apply hdr_fault_here; auto 6|].
      destruct (N.ltb_spec (lim - pos) ((B (pos + 1) + 1) * 8));
        [intros [= <-]; right; right; right; apply hdr_fault_here; auto 6|].
      intros K. apply IH in K. revert K. apply chain_fault_from; lia. }
    destruct (nh =? 44).
    { destruct (N.ltb_spec (lim - pos) 8); [intros [= <-]; right; right; right; apply hdr_fault_here; auto 6|].
      intros K. apply IH in K. revert K. apply chain_fault_from; lia. }
    destruct (nh =? 51); [|discriminate].
    destruct (wire_ah bs CeIpv6AuthZeroPayloadLen src pos lim) as [l nx|r'] eqn:Ea.
    - apply wire_ah_iff in Ea. intros K. apply IH in K. revert K. apply chain_fault_from; lia.
    - intros [= <-]. apply wire_ah_fault in Ea. tauto.
  Qed.

  Lemma wire_exts_fault fuel src pos lim nh r :
    wire_exts bs fuel src pos lim nh = ChErr r -> chain_fault src pos lim r.
  Proof.
    unfold wire_exts. cbv zeta. destruct (nh =? 0); [|apply wire_chain_fault].
    destruct (N.ltb_spec (lim - pos) 8);
      [intros [= <-]; right; right; right; apply hdr_fault_here; auto 6|].
    destruct (N.ltb_spec (lim - pos) ((B (pos + 1) + 1) * 8));
      [intros [= <-]; right; right; right; apply hdr_fault_here; auto 6|].
    intros K. apply wire_chain_fault in K. revert K. apply chain_fault_from; lia.
  Qed.

  Lemma wire_exts_err fuel src pos lim nh r :
    wire_exts bs fuel src pos lim nh = ChErr r -> forall v, r <> VOk v.
  Proof.
    intros H. apply wire_exts_fault in H.
    destruct H as [->|[->|[->|H]]]; try discriminate. exact (hdr_fault_err _ _ _ _ H).
  Qed.

  Lemma wire_ipv6_tail_iff p esrc psrc pos lim' v :
    wire_ipv6_tail bs p esrc psrc pos lim' = VOk v <->
    exists e next frag,
      wire_exts bs (S (N.to_nat (lim' - (pos + 40)))) esrc (pos + 40) lim' (B (pos + 6)) = ChOk e next frag /\
      wire_transport bs
        (with_net p (VIpv6 (pos, 40) (if e =? pos + 40 then None else Some (B (pos + 6))) frag
                       (pos + 40, e - (pos + 40)) (mkVIp next frag psrc (e, lim' - e))))
        next frag esrc e lim' = VOk v.
  Proof.
    unfold wire_ipv6_tail.
    destruct (wire_exts bs _ esrc (pos + 40) lim' (B (pos + 6))) as [e next frag|r] eqn:Ec.
    - split; [intros Hw; exists e, next, frag; auto|].
      intros (e' & next' & frag' & [= -> -> ->] & Hw). exact Hw.
    - split; [intros ->; elim (wire_exts_err _ _ _ _ _ _ Ec v eq_refl)|].
      intros (e' & next' & frag' & Hc & _). discriminate.
  Qed.

  Lemma wire_ipv6_body_iff p src pos lim v :
    wire_ipv6_body bs p src pos lim = VOk v <->
    (W (pos + 4) = 0 /\ 40 < lim - pos /\ wire_ipv6_tail bs p src LsSlice pos lim = VOk v) \/
    (~ (W (pos + 4) = 0 /\ 40 < lim - pos) /\ 40 + W (pos + 4) <= lim - pos /\
     wire_ipv6_tail bs p LsIpv6HeaderPayloadLen LsIpv6HeaderPayloadLen pos (pos + 40 + W (pos + 4)) = VOk v).
  Proof.
    unfold wire_ipv6_body, cut. cbv zeta.
    destruct ((W (pos + 4) =? 0) && (40 <? lim - pos)) eqn:E1.
    { split; [intros Hw; left; split; [lia|split; [lia|exact Hw]]|intros [Hw|Hw]; [apply Hw|lia]]. }
    destruct (N.ltb_spec (lim - pos) (40 + W (pos + 4))); [split; [discriminate|lia]|].
    split; [intros Hw; right; split; [lia|split; [lia|exact Hw]]|intros [Hw|Hw]; [lia|apply Hw]].
  Qed.

  Lemma wire_ipv6_iff p src pos lim v :
    wire_ipv6 bs p src pos lim = VOk v <->
    40 <= lim - pos /\ B pos / 16 = 6 /\ wire_ipv6_body bs p src pos lim = VOk v.
  Proof.
    unfold wire_ipv6, cut, bad. cbv zeta.
    destruct (N.ltb_spec (lim - pos) 40); [split; [discriminate|lia]|].
    destruct (N.eqb_spec (B pos / 16) 6); cbn [negb]; [|split; [discriminate|lia]].
    split; [auto|]. intros Hv. apply Hv.
  Qed.

  (* started at "an IP header": the facts of wire_ipv4 / wire_ipv6, selected by the version nibble *)
  Lemma wire_ip_iff p src pos lim v :
    wire_ip bs p src pos lim = VOk v <->
    wire_ipv4 bs p src pos lim = VOk v \/ wire_ipv6 bs p src pos lim = VOk v.
  Proof.
    rewrite wire_ipv4_iff, wire_ipv6_iff. unfold wire_ip, cut, bad. cbv zeta.
    destruct (N.eqb_spec (lim - pos) 0); [split; [discriminate|lia]|].
    destruct (N.eqb_spec (B pos / 16) 4).
    { destruct (N.ltb_spec (B pos mod 16) 5); [split; [discriminate|lia]|].
      destruct (N.ltb_spec (lim - pos) (B pos mod 16 * 4)); [split; [discriminate|lia]|].
      split; [auto|]. intros [Hv|Hv]; [apply Hv|lia]. }
    destruct (N.eqb_spec (B pos / 16) 6); [|split; [discriminate|lia]].
    destruct (N.ltb_spec (lim - pos) 40); [split; [discriminate|lia]|].
    split; [auto|]. intros [Hv|Hv]; [lia|apply Hv].
  Qed.

  Lemma wire_arp_iff p src pos lim v :
    wire_arp bs p src pos lim = VOk v <->
    8 + B (pos + 4) * 2 + B (pos + 5) * 2 <= lim - pos /\
    v = with_net p (VArp (pos, 8 + B (pos + 4) * 2 + B (pos + 5) * 2)).
  Proof.
    unfold wire_arp, cut. cbv zeta.
    destruct (N.ltb_spec (lim - pos) 8); [split; [discriminate|lia]|].
    destruct (N.ltb_spec (lim - pos) (8 + B (pos + 4) * 2 + B (pos + 5) * 2)); [split; [discriminate|lia]|].
    rewrite ok_ok_iff. tauto.
  Qed.

  Lemma wire_net_iff p et src pos lim v :
    wire_net bs p et src pos lim = VOk v <->
    (et = 2054 /\ wire_arp bs p src pos lim = VOk v) \/
    (et = 2048 /\ wire_ipv4 bs p src pos lim = VOk v) \/
    (et = 34525 /\ wire_ipv6 bs p src pos lim = VOk v) \/
    (~ (et = 2054 \/ et = 2048 \/ et = 34525) /\ v = p).
  Proof.
    unfold wire_net.
    destruct (N.eqb_spec et 2054) as [->|N1]; [split; [auto|intros [K|[K|[K|K]]]; [apply K|lia..]]|].
    destruct (N.eqb_spec et 2048) as [->|N2]; [split; [auto|intros [K|[K|[K|K]]]; [lia|apply K|lia..]]|].
    destruct (N.eqb_spec et 34525) as [->|N3]; [split; [auto|intros [K|[K|[K|K]]]; [lia|lia|apply K|lia]]|].
    rewrite ok_ok_iff. split; [intros ->; right; right; right; split; [lia|reflexivity]|].
    intros [K|[K|[K|K]]]; [lia..|apply K].
  Qed.

  Lemma link_ext_cases et : is_vlan et = true \/ et = 35045 \/ (is_vlan et = false /\ et <> 35045).
  Proof. destruct (is_vlan et); [auto|]. destruct (N.eq_dec et 35045); auto. Qed.

  Lemma wire_ether_stop p et src pos lim :
    is_vlan et = true \/ et = 35045 -> wire_ether bs 0 p et src pos lim = VOk p.
  Proof.
    intros [Hv| ->]; cbn [wire_ether]; [rewrite Hv; reflexivity|]. reflexivity.
  Qed.

  Lemma wire_ether_net cap p et src pos lim :
    is_vlan et = false -> et <> 35045 ->
    wire_ether bs cap p et src pos lim = wire_net bs p et src pos lim.
  Proof.
    intros Ev E.
    destruct cap; cbn [wire_ether]; cbv zeta; rewrite Ev; destruct (N.eqb_spec et 35045); tauto.
  Qed.

  Lemma wire_ether_vlan c p et src pos lim v :
    is_vlan et = true ->
    wire_ether bs (S c) p et src pos lim = VOk v <->
    4 <= lim - pos /\
    wire_ether bs c (with_ext p (VVlan (pos, lim - pos))) (W (pos + 2)) src (pos + 4) lim = VOk v.
  Proof.
    intros Hv. cbn [wire_ether]. cbv zeta. rewrite Hv. unfold cut.
    destruct (N.ltb_spec (lim - pos) 4); [split; [discriminate|lia]|]. split; [auto|]. intros K. apply K.
  Qed.

  Lemma macsec_hl_bounds tci : 6 <= macsec_hl tci <= 16.
  Proof.
    unfold macsec_hl. destruct ((tci / 4) mod 4 =? 0); destruct (negb ((tci / 32) mod 2 =? 0)); lia.
  Qed.

  (* where the data behind the SecTAG at pos ends: a short length of 0 leaves the limit alone *)
  Definition macsec_lim (pos lim : N) : N :=
    if 0 <? B (pos + 1) mod 64
    then pos + macsec_hl (B pos) + macsec_body (B pos) (B (pos + 1) mod 64) else lim.

  Lemma wire_ether_macsec c p src pos lim v :
    let tci := B pos in
    let sl := B (pos + 1) mod 64 in
    let hl := macsec_hl tci in
    let lim' := macsec_lim pos lim in
    wire_ether bs (S c) p 35045 src pos lim = VOk v <->
    tci < 128 /\ ~ ((tci / 4) mod 4 = 0 /\ sl = 1) /\ hl <= lim - pos /\
    (0 < sl -> hl + macsec_body tci sl <= lim - pos) /\
    if (tci / 4) mod 4 =? 0 then
      wire_ether bs c
        (with_ext p (VMacsec (pos, hl)
           (VMpUnmodified (mkVEp (W (pos + hl - 2)) (if 0 <? sl then LsMacsecShortLength else LsSlice)
                             (pos + hl, lim' - (pos + hl))))))
        (W (pos + hl - 2)) (if 0 <? sl then LsMacsecShortLength else src) (pos + hl) lim' = VOk v
    else v = with_ext p (VMacsec (pos, hl) (VMpModified (pos + hl, lim' - (pos + hl)))).
  Proof.
    intros tci sl hl lim'. pose proof (macsec_hl_bounds tci) as Hb. fold hl in Hb. subst lim'. unfold macsec_lim.
    cbn [wire_ether]. change (is_vlan 35045) with false. change (35045 =? 35045) with true. cbv iota zeta.
    fold tci sl. fold (macsec_hl tci). fold hl. fold (macsec_body tci sl). unfold cut, bad.
    clearbody hl.
    destruct (N.ltb_spec (lim - pos) 6); [split; [discriminate|lia]|].
    destruct (N.leb_spec 128 tci); [split; [discriminate|lia]|].
    destruct (((tci / 4) mod 4 =? 0) && (sl =? 1)) eqn:E3; [split; [discriminate|lia]|].
    destruct (N.ltb_spec (lim - pos) hl); [split; [discriminate|lia]|].
    destruct ((0 <? sl) && (lim - pos <? hl + macsec_body tci sl)) eqn:E5; [split; [discriminate|lia]|].
    destruct ((tci / 4) mod 4 =? 0) eqn:Eu.
    - split; [intros K; repeat split; try lia; exact K|]. intros K. apply K.
    - rewrite ok_ok_iff. split; [intros ->; repeat split; lia|]. intros K. apply K.
  Qed.

  Lemma macsec_lim_spec pos lim :
    let sl := B (pos + 1) mod 64 in
    let hl := macsec_hl (B pos) in
    hl <= lim - pos -> (0 < sl -> hl + macsec_body (B pos) sl <= lim - pos) ->
    pos + hl <= macsec_lim pos lim <= lim /\
    (sl = 0 -> macsec_lim pos lim = lim) /\
    (0 < sl -> macsec_lim pos lim = pos + hl + macsec_body (B pos) sl).
  Proof.
    cbv zeta. unfold macsec_lim. intros H1 H2. pose proof (macsec_hl_bounds (B pos)).
    destruct (N.ltb_spec 0 (B (pos + 1) mod 64)); lia.
  Qed.
End Inversion.

Section Classes.
  Variable bs : bytes.
  Local Notation B := (B bs).
  Local Notation W := (W bs).

  (* length errors: o = offset of the failing layer, r = required, l = reported length *)
  Definition class_len (e : len_error) : option err_class :=
    let o := le_off e in
    let r := le_required e in
    let l := le_len e in
    match le_layer e with
    | LyEthernet2Header => sel ((r =? 14) && (l <? r)) EcHeaderCut
    | LyLinuxSllHeader => sel ((r =? 16) && (l <? r)) EcHeaderCut
    | LyVlanHeader => sel ((r =? 4) && (l <? r)) EcHeaderCut
    | LyMacsecHeader => sel (((r =? 6) || (r =? macsec_hl (B o))) && (l <? r)) EcHeaderCut
    | LyMacsecPacket =>
        sel ((0 <? B (o + 1) mod 64) &&
             (r =? macsec_hl (B o) + macsec_body (B o) (B (o + 1) mod 64)) && (l <? r))
          EcLenFieldBeyond
    | LyIpHeader => sel ((r =? 1) && (l <? r)) EcHeaderCut
    | LyIpv4Header => sel (((r =? 20) || (r =? (B o mod 16) * 4)) && (l <? r)) EcHeaderCut
    | LyIpv4Packet =>
        if (r =? (B o mod 16) * 4) && (l =? W (o + 2)) && (l <? r) then Some EcLenFieldBelowHeader
        else sel ((r =? W (o + 2)) && (l <? r)) EcLenFieldBeyond
    | LyIpAuthHeader => sel (((r =? 12) || (r =? (B (o + 1) + 2) * 4)) && (l <? r)) EcHeaderCut
    | LyIpv6Header => sel ((r =? 40) && (l <? r)) EcHeaderCut
    | LyIpv6Packet => sel ((r =? 40 + W (o + 4)) && (l <? r)) EcLenFieldBeyond
    | LyIpv6ExtHeader => sel (((r =? 8) || (r =? (B (o + 1) + 1) * 8)) && (l <? r)) EcHeaderCut
    | LyIpv6FragHeader => sel ((r =? 8) && (l <? r)) EcHeaderCut
    | LyUdpHeader =>
        match le_src e with
        | LsUdpHeaderLen => sel ((r =? 8) && (l =? W (o + 4)) && (0 <? l) && (l <? r)) EcLenFieldBelowHeader
        | _ => sel ((r =? 8) && (l <? r)) EcHeaderCut
        end
    | LyUdpPayload => sel ((r =? W (o + 4)) && (l <? r)) EcLenFieldBeyond
    | LyTcpHeader => sel (((r =? 20) || (r =? (B (o + 12) / 16) * 4)) && (l <? r)) EcHeaderCut
    | LyIcmpv4 => sel ((r =? 8) && (l <? r)) EcHeaderCut
    | LyIcmpv4Timestamp =>
        sel ((B o =? 13) && (B (o + 1) =? 0) && (r =? 20) && (8 <=? l) && negb (l =? 20)) EcIcmpv4TimestampSize
    | LyIcmpv4TimestampReply =>
        sel ((B o =? 14) && (B (o + 1) =? 0) && (r =? 20) && (8 <=? l) && negb (l =? 20)) EcIcmpv4TimestampSize
    | LyIcmpv6 =>
        if (r =? 8) && (l <? r) then Some EcHeaderCut
        else sel ((r =? 4294967295) && (r <? l)) EcIcmpv6TooLong
    | LyArp => sel (((r =? 8) || (r =? 8 + B (o + 4) * 2 + B (o + 5) * 2)) && (l <? r)) EcHeaderCut
    | LyEtherPayload | LyIpv6HopByHopHeader | LyIpv6DestOptionsHeader | LyIpv6RouteHeader => None
    end.

  (* content errors: the listed rule, and the carried value really violates it *)
  Definition class_content (c : content_error) : option err_class :=
    match c with
    | CeLinuxSllPacketType v => sel (7 <? v) EcContentRule
    | CeLinuxSllArpHardwareId v => sel (negb (sll_hw_supported v)) EcContentRule
    | CeMacsecVersion | CeMacsecUnmodifiedShortLen | CeAuthZeroPayloadLen
    | CeIpv6AuthZeroPayloadLen | CeHopByHopNotAtStart => Some EcContentRule
    | CeIpUnsupportedVersion v => sel (negb (v =? 4) && negb (v =? 6)) EcContentRule
    | CeIpIhl v | CeIpv4Ihl v => sel (v <? 5) EcContentRule
    | CeIpv4Version v => sel (negb (v =? 4)) EcContentRule
    | CeIpv6Version v => sel (negb (v =? 6)) EcContentRule
    | CeTcpDataOffset v => sel (v <? 5) EcContentRule
    end.

  Definition classify (err : slice_error) : option err_class :=
    match err with
    | ELen e => class_len e
    | EContent c => class_content c
    end.
End Classes.

Definition len_direction (e : len_error) : Prop :=
  match le_layer e with
  | LyIcmpv4Timestamp | LyIcmpv4TimestampReply =>
      le_required e = 20 /\ 8 <= le_len e /\ le_len e <> 20
  | LyIcmpv6 =>
      (le_required e = 8 /\ le_len e < 8) \/
      (le_required e = 4294967295 /\ 4294967295 < le_len e)
  | _ => le_len e < le_required e
  end.

(* the layers / required values of the two "oversized" rules *)
Definition oversized_rule (e : len_error) : Prop :=
  ((le_layer e = LyIcmpv4Timestamp \/ le_layer e = LyIcmpv4TimestampReply) /\ le_required e = 20) \/
  (le_layer e = LyIcmpv6 /\ le_required e = 4294967295).

Lemma len_direction_meaning e :
  len_direction e ->
  (le_len e < le_required e \/ (le_required e < le_len e /\ oversized_rule e)) /\
  le_required e <> le_len e.
Proof.
  unfold len_direction, oversized_rule. destruct (le_layer e); intros H; try (split; [left|]; lia).
  - destruct H as (H1 & H2 & H3). split; [|lia].
    destruct (N.lt_ge_cases (le_len e) 20); [left; lia|right; split; [lia|left; split; auto]].
  - destruct H as (H1 & H2 & H3). split; [|lia].
    destruct (N.lt_ge_cases (le_len e) 20); [left; lia|right; split; [lia|left; split; auto]].
  - destruct H as [(H1 & H2)|(H1 & H2)]; (split; [|lia]); [left; lia|right; split; [lia|right; split; auto]].
Qed.

Lemma sel_some b c c' : sel b c = Some c' -> b = true /\ c' = c.
Proof. destruct b; [intros [= <-]; auto|discriminate]. Qed.

Lemma sel2_some (b1 : bool) c1 b2 c2 c :
  (if b1 then Some c1 else sel b2 c2) = Some c ->
  (b1 = true /\ c = c1) \/ (b1 = false /\ b2 = true /\ c = c2).
Proof. destruct b1; [intros [= <-]; auto|intros H; apply sel_some in H; right; tauto]. Qed.

(* a classified length error has the direction of its class: every arm of `class_len` is a
   boolean formula over required and length that `lia` reads as it stands *)
Lemma class_len_direction bs e c :
  class_len bs e = Some c ->
  len_direction e /\
  (c = EcHeaderCut \/ c = EcLenFieldBeyond \/ c = EcLenFieldBelowHeader -> le_len e < le_required e) /\
  (c = EcIcmpv4TimestampSize -> le_required e = 20 /\ le_len e <> 20) /\
  (c = EcIcmpv6TooLong -> le_required e = 4294967295 /\ 4294967295 < le_len e) /\
  c <> EcContentRule.
Proof.
  unfold class_len, len_direction.
  destruct (le_layer e); try discriminate;
    try match goal with |- context [le_src e] => destruct (le_src e) end;
    intros H;
    first [apply sel_some in H; destruct H as (Hb & ->)
          |apply sel2_some in H; destruct H as [(Hb & ->)|(Hb1 & Hb & ->)]];
    (split; [lia|]); (split; [first [intros [?|[?|?]]; discriminate|intros _; lia]|]);
    (split; [first [discriminate|intros _; lia]|]);
    (split; [first [discriminate|intros _; lia]|discriminate]).
Qed.

Section Proofs.
  Variable bs : bytes.
  Local Notation B := (B bs).
  Local Notation W := (W bs).

  (* every error r can be is one `classify` knows *)
  Definition EOK (r : vres) : Prop := forall err, r = VErr err -> classify bs err <> None.

  Lemma EOK_ok p : EOK (VOk p).
  Proof. intros err H. discriminate. Qed.

  Lemma sel_true b c : b = true -> sel b c <> None.
  Proof. intros ->. discriminate. Qed.
  Lemma sel2_true b1 c1 b2 c2 : b1 || b2 = true -> (if b1 then Some c1 else sel b2 c2) <> None.
  Proof. destruct b1; cbn; [discriminate|intros ->; discriminate]. Qed.

  Lemma EOK_cut r a src ly pos :
    class_len bs (mkLenError r a src ly pos) <> None -> EOK (cut r a src ly pos).
  Proof. intros H err E. unfold cut in E. injection E as <-. exact H. Qed.
  Lemma EOK_bad c : class_content c <> None -> EOK (bad c).
  Proof. intros H err E. unfold bad in E. injection E as <-. exact H. Qed.

  (* length sources that reach a transport layer as the source of its limit *)
  Definition osrc (s : len_source) : Prop :=
    s = LsSlice \/ s = LsMacsecShortLength \/ s = LsIpv4HeaderTotalLen \/ s = LsIpv6HeaderPayloadLen.

  Ltac leaf :=
    apply EOK_cut; unfold class_len;
    cbn [le_layer le_off le_required le_len le_src];
    first [apply sel_true | apply sel2_true]; lia.

  Ltac brk E :=
    match goal with
    | |- EOK (if ?c then _ else _) => destruct c eqn:E
    end.

  Lemma wire_udp_eok p src pos lim : osrc src -> EOK (wire_udp bs p src pos lim).
  Proof.
    intros Hs. unfold wire_udp. cbv zeta.
    brk E1.
    { apply EOK_cut; unfold class_len; cbn [le_layer le_off le_required le_len le_src].
      destruct Hs as [-> | [-> | [-> | ->]]]; apply sel_true; lia. }
    brk E2; [leaf|]. brk E3; [apply EOK_ok|]. brk E4; [leaf|apply EOK_ok].
  Qed.

  Lemma wire_tcp_eok p src pos lim : EOK (wire_tcp bs p src pos lim).
  Proof.
    unfold wire_tcp. cbv zeta. brk E1; [leaf|]. brk E2.
    { apply EOK_bad. cbn [class_content]. apply sel_true. exact E2. }
    brk E3; [leaf|apply EOK_ok].
  Qed.

  Lemma wire_icmp4_eok p src pos lim : EOK (wire_icmp4 bs p src pos lim).
  Proof.
    unfold wire_icmp4. cbv zeta. brk E1; [leaf|]. brk E2; [leaf|]. brk E3; [leaf|apply EOK_ok].
  Qed.

  Lemma wire_icmp6_eok p src pos lim : EOK (wire_icmp6 p src pos lim).
  Proof.
    unfold wire_icmp6. cbv zeta. brk E1; [leaf|]. brk E2; [leaf|apply EOK_ok].
  Qed.

  Lemma wire_transport_eok p ipn frag src pos lim :
    osrc src -> EOK (wire_transport bs p ipn frag src pos lim).
  Proof.
    intros Hs. unfold wire_transport.
    destruct frag; [apply EOK_ok|].
    destruct (ipn =? 1); [apply wire_icmp4_eok|].
    destruct (ipn =? 17); [now apply wire_udp_eok|].
    destruct (ipn =? 6); [apply wire_tcp_eok|].
    destruct (ipn =? 58); [apply wire_icmp6_eok|apply EOK_ok].
  Qed.

  Lemma hdr_fault_eok src pos lim r : hdr_fault bs src pos lim r -> EOK r.
  Proof.
    intros (o & req & ly & -> & _ & _ & Hl & [(-> & Hr)|[(-> & Hr)|(-> & Hr)]]); leaf.
  Qed.

  Lemma wire_ah_eok zero src pos lim r :
    class_content zero <> None -> wire_ah bs zero src pos lim = AhErr r -> EOK r.
  Proof.
    intros Hz H. apply wire_ah_fault in H.
    destruct H as [->|H]; [now apply EOK_bad|exact (hdr_fault_eok _ _ _ _ H)].
  Qed.

  Lemma wire_ipv4_tail_eok p pos hl lim' : EOK (wire_ipv4_tail bs p pos hl lim').
  Proof.
    unfold wire_ipv4_tail. cbv zeta.
    destruct (B (pos + 9) =? 51).
    - destruct (wire_ah bs CeAuthZeroPayloadLen LsIpv4HeaderTotalLen (pos + hl) lim') as [ahl next|r] eqn:Ea.
      + apply wire_transport_eok. right; right; left; reflexivity.
      + eapply wire_ah_eok; [|exact Ea]. discriminate.
    - apply wire_transport_eok. right; right; left; reflexivity.
  Qed.

  Lemma wire_ipv4_body_eok p src pos lim hl :
    hl = (B pos mod 16) * 4 -> EOK (wire_ipv4_body bs p src pos lim hl).
  Proof.
    intros Hhl. unfold wire_ipv4_body. cbv zeta.
    brk E1; [leaf|]. brk E2; [leaf|]. apply wire_ipv4_tail_eok.
  Qed.

  Lemma wire_ipv4_eok p src pos lim : EOK (wire_ipv4 bs p src pos lim).
  Proof.
    unfold wire_ipv4. cbv zeta. brk E1; [leaf|].
    brk E2. { apply EOK_bad. cbn [class_content]. apply sel_true. exact E2. }
    brk E3. { apply EOK_bad. cbn [class_content]. apply sel_true. exact E3. }
    brk E4; [leaf|]. now apply wire_ipv4_body_eok.
  Qed.

  Lemma wire_exts_eok fuel src pos lim nh r :
    wire_exts bs fuel src pos lim nh = ChErr r -> r = VBug SITE_FUEL \/ EOK r.
  Proof.
    intros H. apply wire_exts_fault in H. destruct H as [H|[->|[->|H]]]; [now left|right..].
    - now apply EOK_bad.
    - now apply EOK_bad.
    - exact (hdr_fault_eok _ _ _ _ H).
  Qed.

  Lemma EOK_bug s : EOK (VBug s).
  Proof. intros err H. discriminate. Qed.

  Lemma wire_ipv6_tail_eok p esrc psrc pos lim' :
    osrc esrc -> EOK (wire_ipv6_tail bs p esrc psrc pos lim').
  Proof.
    intros Hs. unfold wire_ipv6_tail.
    destruct (wire_exts bs _ esrc (pos + 40) lim' (B (pos + 6))) as [e next frag|r] eqn:Ec.
    - now apply wire_transport_eok.
    - destruct (wire_exts_eok _ _ _ _ _ _ Ec) as [->|H]; [apply EOK_bug|exact H].
  Qed.

  Lemma wire_ipv6_body_eok p src pos lim :
    osrc src -> EOK (wire_ipv6_body bs p src pos lim).
  Proof.
    intros Hs. unfold wire_ipv6_body. cbv zeta.
    brk E1; [now apply wire_ipv6_tail_eok|]. brk E2; [leaf|].
    apply wire_ipv6_tail_eok. right; right; right; reflexivity.
  Qed.

  Lemma wire_ipv6_eok p src pos lim : osrc src -> EOK (wire_ipv6 bs p src pos lim).
  Proof.
    intros Hs. unfold wire_ipv6. cbv zeta. brk E1; [leaf|].
    brk E2. { apply EOK_bad. cbn [class_content]. apply sel_true. exact E2. }
    now apply wire_ipv6_body_eok.
  Qed.

  Lemma wire_ip_eok p src pos lim : osrc src -> EOK (wire_ip bs p src pos lim).
  Proof.
    intros Hs. unfold wire_ip. cbv zeta. brk E1; [leaf|].
    brk E2.
    { brk E3. { apply EOK_bad. cbn [class_content]. apply sel_true. exact E3. }
      brk E4; [leaf|]. now apply wire_ipv4_body_eok. }
    brk E3.
    { brk E4; [leaf|]. now apply wire_ipv6_body_eok. }
    apply EOK_bad. cbn [class_content]. apply sel_true. lia.
  Qed.

  Lemma wire_arp_eok p src pos lim : EOK (wire_arp bs p src pos lim).
  Proof.
    unfold wire_arp. cbv zeta. brk E1; [leaf|]. brk E2; [leaf|apply EOK_ok].
  Qed.

  Lemma wire_net_eok p et src pos lim : osrc src -> EOK (wire_net bs p et src pos lim).
  Proof.
    intros Hs. unfold wire_net.
    destruct (et =? 2054); [apply wire_arp_eok|].
    destruct (et =? 2048); [apply wire_ipv4_eok|].
    destruct (et =? 34525); [now apply wire_ipv6_eok|apply EOK_ok].
  Qed.

  Lemma wire_ether_eok : forall cap p et src pos lim,
    osrc src -> EOK (wire_ether bs cap p et src pos lim).
  Proof.
    induction cap as [|c IH]; intros p et src pos lim Hs; cbn [wire_ether]; cbv zeta.
    { destruct (is_vlan et); [apply EOK_ok|]. destruct (et =? 35045); [apply EOK_ok|now apply wire_net_eok]. }
    destruct (is_vlan et).
    { brk E1; [leaf|]. now apply IH. }
    destruct (et =? 35045); [|now apply wire_net_eok].
    brk E1; [leaf|].
    brk E2. { apply EOK_bad. discriminate. }
    brk E3. { apply EOK_bad. discriminate. }
    brk E4. { apply EOK_cut; unfold class_len, macsec_hl; cbn [le_layer le_off le_required le_len le_src].
              apply sel_true. lia. }
    brk E5. { apply EOK_cut; unfold class_len, macsec_hl, macsec_body; cbn [le_layer le_off le_required le_len le_src].
              apply sel_true. lia. }
    destruct ((B pos / 4) mod 4 =? 0); [|apply EOK_ok].
    apply IH. destruct (0 <? B (pos + 1) mod 64); [right; left; reflexivity|exact Hs].
  Qed.

  Theorem wire_ethernet_eok : EOK (wire_ethernet bs).
  Proof.
    unfold wire_ethernet. brk E1; [leaf|]. apply wire_ether_eok. now left.
  Qed.

  Theorem wire_linux_sll_eok : EOK (wire_linux_sll bs).
  Proof.
    unfold wire_linux_sll. cbv zeta. brk E1; [leaf|].
    brk E2. { apply EOK_bad. cbn [class_content]. apply sel_true. exact E2. }
    brk E3. { apply EOK_bad. cbn [class_content]. apply sel_true. exact E3. }
    brk E4; [|apply EOK_ok]. apply wire_ether_eok. now left.
  Qed.

  Theorem wire_ether_type_eok et : EOK (wire_ether_type bs et).
  Proof. unfold wire_ether_type. apply wire_ether_eok. now left. Qed.

  Theorem wire_from_ip_eok : EOK (wire_from_ip bs).
  Proof. unfold wire_from_ip. apply wire_ip_eok. now left. Qed.
End Proofs.

Lemma EOK_class bs r err : EOK bs r -> r = VErr err -> exists c, classify bs err = Some c.
Proof.
  intros H E. specialize (H err E). destruct (classify bs err) as [c|]; [now exists c|contradiction].
Qed.

Theorem wire_err_classes bs et err :
  (wire_ethernet bs = VErr err -> exists c, classify bs err = Some c) /\
  (wire_linux_sll bs = VErr err -> exists c, classify bs err = Some c) /\
  (wire_ether_type bs et = VErr err -> exists c, classify bs err = Some c) /\
  (wire_from_ip bs = VErr err -> exists c, classify bs err = Some c).
Proof.
  repeat split; apply EOK_class;
    [apply wire_ethernet_eok|apply wire_linux_sll_eok|apply wire_ether_type_eok|apply wire_from_ip_eok].
Qed.

Theorem wire_len_direction bs et e :
  (wire_ethernet bs = VErr (ELen e) -> len_direction e) /\
  (wire_linux_sll bs = VErr (ELen e) -> len_direction e) /\
  (wire_ether_type bs et = VErr (ELen e) -> len_direction e) /\
  (wire_from_ip bs = VErr (ELen e) -> len_direction e).
Proof.
  destruct (wire_err_classes bs et (ELen e)) as (H1 & H2 & H3 & H4).
  repeat split; intros H;
    [destruct (H1 H) as (c & Hc)|destruct (H2 H) as (c & Hc)|destruct (H3 H) as (c & Hc)
    |destruct (H4 H) as (c & Hc)]; exact (proj1 (class_len_direction bs e c Hc)).
Qed.
