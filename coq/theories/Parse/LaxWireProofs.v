(* Parse/LaxWireProofs.v -- the lax slicing model (LaxSlices.v, LaxCursor.v) computes the lax
   reference decoding of LaxWire.v for every byte string: under the representation invariant
   `repr` (every slice handed down is a window of the buffer) each lax function returns Ok and
   its observer view is the reference function's value.  Corollary: the lax model never
   returns Bug (whole-packet entry points: `lax_never_bug`; the single-layer lax decoders on
   a window of the buffer: `lax_single_never_bug`, which takes `nb_udp_lax` from Parse/CtorsTotal.v). *)
From EP Require Import Base.Bytes Parse.Types Parse.Slices Parse.Cursor Parse.View Parse.WireSpec
  Parse.Repr Parse.StrictProofs Parse.LaxSlices Parse.LaxCursor Parse.LaxView Parse.LaxProofs
  Parse.WireSpecFacts Parse.CtorsTotal Parse.LaxWire Parse.LaxSecTag.
From Coq Require Import ZArith Lia ZifyN ZifyBool.
Local Open Scope N_scope.

Lemma lview_with_stop r e : lview (L.with_stop r e) = lstop (lview r) e.
Proof. reflexivity. Qed.
Lemma lview_with_opt_stop r e : lview (L.with_opt_stop r e) = lstop_opt (lview r) e.
Proof. destruct e; reflexivity. Qed.
Lemma lview_with_net r n : lview (L.with_net r n) = lwith_net (lview r) (lview_net n).
Proof. reflexivity. Qed.
Lemma lview_with_transport r t : lview (L.with_transport r t) = lwith_tr (lview r) (view_tr t).
Proof. reflexivity. Qed.
Lemma lhas_stop_view r : lhas_stop (lview r) = L.has_stop r.
Proof. reflexivity. Qed.

Lemma fix_len_slice req a ly off src :
  L.fix_len (mkLenError req a LsSlice ly 0) off src = mkLenError req a src ly off.
Proof. unfold L.fix_len, le_add_offset, le_set_src. cbn. now rewrite N.add_0_l. Qed.

Section LTransport.
  Variables (bs : bytes) (lc : lax_cursor) (p : lax_ip_payload) (pos lim : N).
  Hypothesis Hok : bytes_ok bs.
  Hypothesis R : repr bs (lipp_slice p) pos lim.
  Hypothesis Hoff : lc_offset lc = pos.

  Ltac fin_cut :=
    cbn [lvres_of]; rewrite lview_with_stop; unfold lerr; rewrite ?fix_len_slice, ?Hoff; reflexivity.
  Ltac fin_ok R :=
    match type of R with
    | repr ?bs ?s ?pos ?lim =>
        cbn [lvres_of]; rewrite lview_with_transport; cbn [view_tr];
        rewrite (repr_win bs s pos lim R); reflexivity
    end.

  Lemma l_icmp4_eq :
    lvres_of
      (match Icmpv4Slice.from_slice (lipp_slice p) with
       | Ok icmp => Ok (L.with_transport (lc_result lc) (TrIcmpv4 icmp))
       | Err (ELen e) => Ok (L.with_stop (lc_result lc) (ELen (L.fix_len e (lc_offset lc) (lipp_src p)), LyIcmpv4))
       | Err (EContent _) => Bug SITE_UNWRAP
       | Bug b => Bug b
       end) = LVOk (lwire_icmp4 bs (lview (lc_result lc)) (lipp_src p) pos lim).
  Proof.
    unfold Icmpv4Slice.from_slice, lwire_icmp4, lcut, lerr. rewrite (repr_len _ _ _ _ R).
    destruct (lim - pos <? 8) eqn:E8; [fin_cut|].
    rd8 R 0. rd8 R 1. rewrite N.add_0_r.
    rewrite (N.eqb_sym 0 (B bs (pos + 1))), (N.eqb_sym 20 (lim - pos)).
    destruct ((B bs pos =? 13) && (B bs (pos + 1) =? 0) && negb (lim - pos =? 20)) eqn:E13; [fin_cut|].
    destruct ((B bs pos =? 14) && (B bs (pos + 1) =? 0) && negb (lim - pos =? 20)) eqn:E14; [fin_cut|].
    fin_ok R.
  Qed.

  Lemma l_icmp6_eq :
    lvres_of
      (match Icmpv6Slice.from_slice (lipp_slice p) with
       | Ok icmp => Ok (L.with_transport (lc_result lc) (TrIcmpv6 icmp))
       | Err (ELen e) => Ok (L.with_stop (lc_result lc) (ELen (L.fix_len e (lc_offset lc) (lipp_src p)), LyIcmpv6))
       | Err (EContent _) => Bug SITE_UNWRAP
       | Bug b => Bug b
       end) = LVOk (lwire_icmp6 (lview (lc_result lc)) (lipp_src p) pos lim).
  Proof.
    unfold Icmpv6Slice.from_slice, Icmpv6Slice.MAX_LEN, lwire_icmp6, lcut, lerr. rewrite (repr_len _ _ _ _ R).
    destruct (lim - pos <? 8) eqn:E8; [fin_cut|].
    destruct (4294967295 <? lim - pos) eqn:Em; [fin_cut|].
    fin_ok R.
  Qed.

  Lemma l_udp_eq :
    lvres_of
      (match UdpSlice.from_slice_lax (lipp_slice p) with
       | Ok udp => Ok (L.with_transport (lc_result lc) (TrUdp udp))
       | Err (ELen e) => Ok (L.with_stop (lc_result lc) (ELen (L.fix_len e (lc_offset lc) (lipp_src p)), LyUdpHeader))
       | Err (EContent _) => Bug SITE_UNWRAP
       | Bug b => Bug b
       end) = LVOk (lwire_udp bs (lview (lc_result lc)) (lipp_src p) pos lim).
  Proof.
    unfold UdpSlice.from_slice_lax, UdpSlice.header_from_slice, UdpSlice.length, lwire_udp, lcut, lerr.
    rewrite (repr_len _ _ _ _ R).
    destruct (lim - pos <? 8) eqn:E8; [cbn [bind]; fin_cut|].
    get_prefix R 8 h Eh Rh. rewrite Eh. cbn [bind]. rd16 Rh 4.
    destruct ((lim - pos <? W bs (pos + 4)) || (W bs (pos + 4) <? 8)) eqn:El; [fin_ok R|].
    get_prefix R (W bs (pos + 4)) u Eu Ru. rewrite Eu.
    cbn [lvres_of]. rewrite lview_with_transport. cbn [view_tr].
    rewrite (repr_win _ _ _ _ Ru). repeat f_equal. lia.
  Qed.

  Lemma l_tcp_eq :
    lvres_of
      (match TcpSlice.from_slice (lipp_slice p) with
       | Ok tcp => Ok (L.with_transport (lc_result lc) (TrTcp (fst tcp) (snd tcp)))
       | Err (ELen e) => Ok (L.with_stop (lc_result lc) (ELen (L.fix_len e (lc_offset lc) (lipp_src p)), LyTcpHeader))
       | Err (EContent ce) => Ok (L.with_stop (lc_result lc) (EContent ce, LyTcpHeader))
       | Bug b => Bug b
       end) = LVOk (lwire_tcp bs (lview (lc_result lc)) (lipp_src p) pos lim).
  Proof.
    unfold TcpSlice.from_slice, lwire_tcp, lcut, lerr. rewrite (repr_len _ _ _ _ R).
    destruct (lim - pos <? 20) eqn:E20; [fin_cut|].
    rd8 R 12. pose proof (B_lt bs (pos + 12) Hok) as Hb.
    rewrite (tcp_hl_bits _ Hb).
    assert (Hd : (B bs (pos + 12) / 16 * 4 <? 20) = (B bs (pos + 12) / 16 <? 5)).
    { destruct (B bs (pos + 12) / 16 <? 5) eqn:E; lia. }
    rewrite Hd.
    destruct (B bs (pos + 12) / 16 <? 5) eqn:E5.
    { cbn [lvres_of]. rewrite lview_with_stop. now rewrite (tcp_do_bits _ Hb). }
    destruct (lim - pos <? B bs (pos + 12) / 16 * 4) eqn:El; [fin_cut|].
    cbn [fst snd]. fin_ok R.
  Qed.

  Lemma l_transport_eq :
    lvres_of (L.slice_transport lc p) =
    LVOk (lwire_transport bs (lview (lc_result lc)) (lipp_number p) (lipp_fragmented p)
            (lipp_src p) pos lim).
  Proof.
    unfold L.slice_transport, lwire_transport. rewrite lhas_stop_view.
    destruct (lipp_fragmented p || L.has_stop (lc_result lc)); [reflexivity|].
    change IPN_ICMP with 1. change IPN_UDP with 17. change IPN_TCP with 6. change IPN_ICMPV6 with 58.
    destruct (lipp_number p =? 1); [apply l_icmp4_eq|].
    destruct (lipp_number p =? 17); [apply l_udp_eq|].
    destruct (lipp_number p =? 6); [apply l_tcp_eq|].
    destruct (lipp_number p =? 58); [apply l_icmp6_eq|].
    reflexivity.
  Qed.
End LTransport.

Lemma fix_rel_len req a s0 ly off0 k pos psrc csrc :
  L.fix_len (le_add_offset (le_set_src (mkLenError req a s0 ly off0) psrc) k) pos csrc
  = mkLenError req a (pick_src psrc csrc) ly (off0 + k + pos).
Proof.
  unfold L.fix_len, le_add_offset, le_set_src, pick_src. cbn.
  destruct (is_slice_src psrc); reflexivity.
Qed.

Lemma fix_len_id l : L.fix_len l 0 LsSlice = l.
Proof.
  destruct l as [r a s ly o]. unfold L.fix_len, le_add_offset, le_set_src. cbn.
  rewrite N.add_0_r. destruct s; reflexivity.
Qed.

(* a stop error of the extension walk (offset relative to `base`, length source not yet
   known) in absolute terms *)
Definition abs_stop (esrc : len_source) (base : N) (e : stop_error) : stop_error :=
  match e with
  | (ELen l, ly) =>
      (ELen (mkLenError (le_required l) (le_len l) esrc (le_layer l) (le_off l + base)), ly)
  | (EContent c, ly) =>
      (EContent (match c with CeHopByHopNotAtStart => c | _ => CeIpv6AuthZeroPayloadLen end), ly)
  end.

(* what every walk does after a header has been recognised: cut it off, read its first
   octet (the next-header field of the IP extension headers), go on behind it *)
Lemma hdr_step bs s pos lim l :
  repr bs s pos lim -> 1 <= l <= lim - pos ->
  exists h r, subU s 0 l = Ok h /\ repr bs h pos (pos + l) /\ rdU h 0 = Ok (B bs pos) /\
    subN (s_len s) (s_len h) = Ok (lim - pos - l) /\ subU s (s_len h) (lim - pos - l) = Ok r /\
    repr bs r (pos + l) lim.
Proof.
  intros R Hl. destruct (repr_prefix bs s pos lim l R ltac:(lia)) as (h & Eh & Rh).
  destruct (repr_rest bs s pos lim l R ltac:(lia)) as (r & Er & Rr).
  exists h, r. rewrite (repr_len _ _ _ _ R), (repr_len _ _ _ _ Rh).
  replace (pos + l - pos) with l by lia. rewrite subN_ok by lia.
  rewrite (repr_rdU bs h pos (pos + l) 0 Rh) by lia. rewrite N.add_0_r.
  split; [exact Eh|]. split; [exact Rh|]. split; [reflexivity|]. split; [reflexivity|].
  split; [exact Er|exact Rr].
Qed.

Lemma conv_ext_stop_ext v4 f g e : (forall l, f l = g l) -> L.conv_ext_stop v4 f e = L.conv_ext_stop v4 g e.
Proof. intros H. destruct e as [[l|c] ly]; cbn; [now rewrite H|reflexivity]. Qed.

(* what LaxIpSlice hands back (slice `ip`, stop error `st`, length errors fixed up by `fx`) against
   the parts of the reference decoding of the network layer at `pos` *)
Definition parts_ok (bs : bytes) (pos : N) (fx : len_error -> len_error) (ip : lax_ip_slice)
  (st : option stop_error) (parts : ip_parts) : Prop :=
  let '(net, pl, st', lim') := parts in
  lview_net (L.net_of_ip ip) = net /\ lview_ipp (LaxIpSlice.payload ip) = pl /\
  option_map (L.conv_ext_stop (L.is_v4 ip) fx) st = st' /\
  repr bs (lipp_slice (LaxIpSlice.payload ip)) (fst (lvip_win pl)) lim' /\ pos <= fst (lvip_win pl).

Lemma parts_ok_ext bs pos fx fx' ip st parts :
  (forall l, fx l = fx' l) -> parts_ok bs pos fx ip st parts -> parts_ok bs pos fx' ip st parts.
Proof.
  intros H. destruct parts as [[[net pl] st'] lim']. intros (F1 & F2 & F3 & F4).
  split; [exact F1|]. split; [exact F2|]. split; [|exact F4].
  rewrite <- F3. destruct st as [x|]; cbn [option_map]; [|reflexivity]. f_equal.
  apply conv_ext_stop_ext. intros l. now rewrite H.
Qed.

Definition wrap4_stop (st : option slice_error) : option stop_error :=
  match st with
  | Some (ELen l) => Some (ELen l, LyIpAuthHeader)
  | Some (EContent _) => Some (EContent CeIpv6AuthZeroPayloadLen, LyIpAuthHeader)
  | None => None
  end.

Lemma l_v4_finish bs header hp pos hl lim' psrc inc csrc :
  bytes_ok bs -> repr bs header pos (pos + hl) -> repr bs hp (pos + hl) lim' -> 20 <= hl ->
  exists v st, LaxIpv4Slice.finish header hp psrc inc = Ok (v, st) /\
    parts_ok bs pos (fun l => L.fix_len l pos csrc) (LIpV4 v) (wrap4_stop st)
      (lwire_ipv4_parts bs csrc pos hl lim' psrc inc).
Proof.
  intros Hok Rh Rp Hhl. pose proof Rp as (_ & Hp1 & Hp2).
  unfold parts_ok, LaxIpv4Slice.finish, lwire_ipv4_parts.
  cbn [L.net_of_ip LaxIpSlice.payload L.is_v4 lview_net].
  rewrite (ipv4_frag_eq bs header pos hl Hok Rh Hhl). cbn [bind].
  unfold Ipv4HeaderSlice.protocol. rd8 Rh 9. change IPN_AUTH with 51.
  destruct (B bs (pos + 9) =? 51) eqn:Eah.
  - rewrite (ah_eq bs hp (pos + hl) lim' Rp). unfold ah_dec, lerr.
    rewrite (repr_len _ _ _ _ Rh). replace (pos + hl - pos) with hl by lia.
    destruct (lim' - (pos + hl) <? 12) eqn:E12.
    { eexists _, _. split; [reflexivity|]. unfold lview_v4, lview_ipp. cbn.
      rewrite (repr_win _ _ _ _ Rh), (repr_win _ _ _ _ Rp). replace (pos + hl - pos) with hl by lia.
      split; [reflexivity|]. split; [reflexivity|]. split; [|split; [exact Rp|lia]].
      rewrite fix_rel_len. replace (0 + hl + pos) with (pos + hl) by lia. reflexivity. }
    destruct (B bs (pos + hl + 1) =? 0) eqn:Ez.
    { eexists _, _. split; [reflexivity|]. unfold lview_v4, lview_ipp. cbn.
      rewrite (repr_win _ _ _ _ Rh), (repr_win _ _ _ _ Rp). replace (pos + hl - pos) with hl by lia.
      split; [reflexivity|]. split; [reflexivity|]. split; [reflexivity|split; [exact Rp|lia]]. }
    destruct (lim' - (pos + hl) <? (B bs (pos + hl + 1) + 2) * 4) eqn:El.
    { eexists _, _. split; [reflexivity|]. unfold lview_v4, lview_ipp. cbn.
      rewrite (repr_win _ _ _ _ Rh), (repr_win _ _ _ _ Rp). replace (pos + hl - pos) with hl by lia.
      split; [reflexivity|]. split; [reflexivity|]. split; [|split; [exact Rp|lia]].
      rewrite fix_rel_len. replace (0 + hl + pos) with (pos + hl) by lia. reflexivity. }
    set (l := (B bs (pos + hl + 1) + 2) * 4) in *.
    destruct (hdr_step bs hp (pos + hl) lim' l Rp ltac:(lia)) as (auth & pl & Ea & Ra & E0 & En & Epl & Rpl).
    rewrite Ea, En. cbn [bind]. rewrite Epl. cbn [bind].
    unfold IpAuthHeaderSlice.next_header. rewrite E0. cbn [bind].
    eexists _, _. split; [reflexivity|]. unfold lview_v4, lview_ipp. cbn.
    rewrite (repr_win _ _ _ _ Rh), (repr_win _ _ _ _ Ra), (repr_win _ _ _ _ Rpl).
    replace (pos + hl - pos) with hl by lia. replace (pos + hl + l - (pos + hl)) with l by lia.
    split; [reflexivity|]. split; [reflexivity|]. split; [reflexivity|split; [exact Rpl|lia]].
  - eexists _, _. split; [reflexivity|]. unfold lview_v4, lview_ipp. cbn.
    rewrite (repr_win _ _ _ _ Rh), (repr_win _ _ _ _ Rp). replace (pos + hl - pos) with hl by lia.
    split; [reflexivity|]. split; [reflexivity|]. split; [reflexivity|split; [exact Rp|lia]].
Qed.

Lemma frag6_eq bs s pos lim :
  repr bs s pos lim ->
  Ipv6FragmentHeaderSlice.from_slice s =
    (if lim - pos <? 8 then lerr 8 (lim - pos) LsSlice LyIpv6FragHeader else subU s 0 8).
Proof. intros R. unfold Ipv6FragmentHeaderSlice.from_slice. now rewrite (repr_len _ _ _ _ R). Qed.

Lemma frag6_fragmenting bs h pos :
  repr bs h pos (pos + 8) ->
  Ipv6FragmentHeaderSlice.is_fragmenting_payload h =
    Ok (negb (B bs (pos + 3) mod 2 =? 0) || negb (W bs (pos + 2) / 8 =? 0)).
Proof.
  intros Rh. unfold Ipv6FragmentHeaderSlice.is_fragmenting_payload,
    Ipv6FragmentHeaderSlice.more_fragments, Ipv6FragmentHeaderSlice.fragment_offset.
  rd8 Rh 3. rd8 Rh 2. do 3 f_equal.
  - change 1 with (N.ones 1). now rewrite N.land_ones.
  - rewrite N.shiftr_div_pow2. unfold W, be16. now replace (pos + 2 + 1) with (pos + 3) by lia.
Qed.

Lemma l_chain_eq bs (Hok : bytes_ok bs) esrc pos0 lim fuel :
  forall rest pos nh frag,
    repr bs rest pos lim -> pos0 <= pos -> (N.to_nat (lim - pos) < fuel)%nat ->
    exists rest' e next fr st,
      LaxIpv6Exts.walk fuel (lim - pos0) rest nh frag = Ok (rest', next, fr, st) /\
      lwire_chain bs fuel esrc pos lim nh frag = (e, next, fr, option_map (abs_stop esrc pos0) st) /\
      repr bs rest' e lim /\ pos <= e.
Proof.
  induction fuel as [|f IH]; intros rest pos nh frag R Hp Hf; [lia|].
  pose proof R as (_ & HR1 & HR2).
  cbn [LaxIpv6Exts.walk lwire_chain].
  change IPN_HOP_BY_HOP with 0. change IPN_DEST_OPTIONS with 60. change IPN_ROUTE with 43.
  change IPN_FRAG with 44. change IPN_AUTH with 51.
  (* the walk ends at `pos` ... *)
  assert (End : forall st, exists rest' e next fr st',
            Ok (rest, nh, frag, st) = Ok (rest', next, fr, st') /\
            (pos, nh, frag, option_map (abs_stop esrc pos0) st)
              = (e, next, fr, option_map (abs_stop esrc pos0) st') /\
            repr bs rest' e lim /\ pos <= e).
  { intros st. exists rest, pos, nh, frag, st. split; [reflexivity|]. split; [reflexivity|]. split; [exact R|lia]. }
  (* ... with a length error of the header there ... *)
  assert (Cut : forall req ly tag, exists rest' e next fr st,
            (let* off := subN (lim - pos0) (s_len rest) in
             Ok (rest, nh, frag,
                 Some (ELen (le_add_offset (mkLenError req (lim - pos) LsSlice ly 0) off), tag)))
              = Ok (rest', next, fr, st) /\
            (pos, nh, frag, Some (ELen (mkLenError req (lim - pos) esrc ly pos), tag))
              = (e, next, fr, option_map (abs_stop esrc pos0) st) /\
            repr bs rest' e lim /\ pos <= e).
  { intros req ly tag. rewrite (repr_len _ _ _ _ R), subN_ok by lia. cbn [bind].
    eexists rest, pos, nh, frag, _. split; [reflexivity|]. split; [|split; [exact R|lia]].
    cbn [option_map abs_stop le_add_offset le_required le_len le_layer le_off].
    now replace (0 + (lim - pos0 - (lim - pos)) + pos0) with pos by lia. }
  (* ... or goes on behind a header of `l` octets *)
  assert (Step : forall l r' nh' frag', 8 <= l -> repr bs r' (pos + l) lim ->
            exists rest' e next fr st,
              LaxIpv6Exts.walk f (lim - pos0) r' nh' frag' = Ok (rest', next, fr, st) /\
              lwire_chain bs f esrc (pos + l) lim nh' frag'
                = (e, next, fr, option_map (abs_stop esrc pos0) st) /\
              repr bs rest' e lim /\ pos <= e).
  { intros l r' nh' frag' Hl Rr. pose proof Rr as (_ & Hr & _).
    destruct (IH r' (pos + l) nh' frag' Rr ltac:(lia) ltac:(lia))
      as (rest' & e & nx & fr & st & A1 & A2 & A3 & A4).
    exists rest', e, nx, fr, st. split; [exact A1|]. split; [exact A2|]. split; [exact A3|lia]. }
  destruct (nh =? 0) eqn:E0; [apply (End (Some (EContent CeHopByHopNotAtStart, LyIpv6HopByHopHeader)))|].
  destruct ((nh =? 60) || (nh =? 43)) eqn:Eraw.
  { rewrite (raw_ext_eq bs rest pos lim R). unfold lerr.
    destruct (lim - pos <? 8) eqn:E8; [apply Cut|].
    destruct (lim - pos <? (B bs (pos + 1) + 1) * 8) eqn:El; [apply Cut|].
    destruct (hdr_step bs rest pos lim ((B bs (pos + 1) + 1) * 8) R ltac:(lia))
      as (h & r' & Eh & Rh & Eb & En & Er & Rr).
    rewrite Eh, En. cbn [bind]. rewrite Er. cbn [bind].
    unfold Ipv6RawExtHeaderSlice.next_header. rewrite Eb. cbn [bind].
    apply Step; [lia|exact Rr]. }
  destruct (nh =? 44) eqn:Efrag.
  { rewrite (frag6_eq bs rest pos lim R). unfold lerr.
    destruct (lim - pos <? 8) eqn:E8; [apply Cut|].
    destruct (hdr_step bs rest pos lim 8 R ltac:(lia)) as (h & r' & Eh & Rh & Eb & En & Er & Rr).
    rewrite Eh, En. cbn [bind]. rewrite Er. cbn [bind].
    unfold Ipv6FragmentHeaderSlice.next_header. rewrite Eb, (frag6_fragmenting bs h pos Rh). cbn [bind].
    apply Step; [lia|exact Rr]. }
  destruct (nh =? 51) eqn:Eauth; [|apply (End None)].
  rewrite (ah_eq bs rest pos lim R). unfold ah_dec, lerr.
  destruct (lim - pos <? 12) eqn:E12; [apply Cut|].
  destruct (B bs (pos + 1) =? 0) eqn:Ez;
    [apply (End (Some (EContent CeIpv6AuthZeroPayloadLen, LyIpAuthHeader)))|].
  destruct (lim - pos <? (B bs (pos + 1) + 2) * 4) eqn:El; [apply Cut|].
  destruct (hdr_step bs rest pos lim ((B bs (pos + 1) + 2) * 4) R ltac:(lia))
    as (h & r' & Eh & Rh & Eb & En & Er & Rr).
  rewrite Eh, En. cbn [bind]. rewrite Er. cbn [bind].
  unfold IpAuthHeaderSlice.next_header. rewrite Eb. cbn [bind].
  apply Step; [lia|exact Rr].
Qed.

Lemma l_exts_eq bs (Hok : bytes_ok bs) esrc s pos lim nh :
  repr bs s pos lim ->
  exists x rest e next fr st,
    LaxIpv6Exts.from_slice_lax nh s = Ok (x, next, rest, st) /\
    lwire_exts bs (S (N.to_nat (lim - pos))) esrc pos lim nh
      = (e, next, fr, option_map (abs_stop esrc pos) st) /\
    repr bs rest e lim /\ pos <= e /\ repr bs (x6_slice x) pos e /\ x6_fragmented x = fr /\
    x6_first x = (if e =? pos then None else Some nh).
Proof.
  intros R. pose proof R as (_ & HR1 & HR2).
  unfold LaxIpv6Exts.from_slice_lax, lwire_exts.
  change IPN_HOP_BY_HOP with 0. rewrite (N.eqb_sym 0 nh).
  rewrite (repr_length _ _ _ _ R), (repr_len _ _ _ _ R).
  (* the end game, given the (rest, next header, fragmented, error) the loop stopped with *)
  assert (End : forall rest' e (next : N) (fr : bool) (st : option stop_error),
             repr bs rest' e lim -> pos <= e ->
             exists x,
               (let* used := subN (lim - pos) (s_len rest') in
                let* sl := (if used <=? lim - pos then Ok (fst s, take used (snd s)) else Bug SITE_INDEX) in
                Ok (mkIpv6Exts (if negb (s_len rest' =? lim - pos) then Some nh else None) fr sl,
                    next, rest', st)) = Ok (x, next, rest', st) /\
               repr bs (x6_slice x) pos e /\ x6_fragmented x = fr /\
               x6_first x = (if e =? pos then None else Some nh)).
  { intros rest' e next fr st RR Le. pose proof RR as (_ & Q1 & Q2).
    rewrite (repr_len _ _ _ _ RR). rewrite subN_ok by lia. cbn [bind].
    destruct (lim - pos - (lim - e) <=? lim - pos) eqn:EE; [|lia]. cbn [bind].
    eexists. split; [reflexivity|]. cbn [x6_slice x6_fragmented x6_first]. split; [|split; [reflexivity|]].
    - replace (lim - pos - (lim - e)) with (e - pos) by lia.
      pose proof (repr_sub bs s pos lim 0 (e - pos) R ltac:(lia)) as RS.
      rewrite (repr_off _ _ _ _ R : fst s = pos).
      rewrite N.add_0_r in RS. replace (pos + (e - pos)) with e in RS by lia.
      unfold drop in RS. cbn [N.to_nat skipn] in RS. exact RS.
    - destruct (e =? pos) eqn:Ee.
      + assert (e = pos) by lia. subst e. rewrite N.eqb_refl. reflexivity.
      + assert ((lim - e =? lim - pos) = false) as -> by lia. reflexivity. }
  assert (Walk : forall rest0 nh0 pos1,
             repr bs rest0 pos1 lim -> pos <= pos1 ->
             exists x rest e next fr st,
               (let* w := LaxIpv6Exts.walk (S (N.to_nat (lim - pos))) (lim - pos) rest0 nh0 false in
                let '(rest, next_header, fragmented, error) := w in
                let* used := subN (lim - pos) (s_len rest) in
                let* sl := (if used <=? lim - pos then Ok (fst s, take used (snd s)) else Bug SITE_INDEX) in
                Ok (mkIpv6Exts (if negb (s_len rest =? lim - pos) then Some nh else None) fragmented sl,
                    next_header, rest, error)) = Ok (x, next, rest, st) /\
               lwire_chain bs (S (N.to_nat (lim - pos))) esrc pos1 lim nh0 false
                 = (e, next, fr, option_map (abs_stop esrc pos) st) /\
               repr bs rest e lim /\ pos <= e /\ repr bs (x6_slice x) pos e /\ x6_fragmented x = fr /\
               x6_first x = (if e =? pos then None else Some nh)).
  { intros rest0 nh0 pos1 R0 Hp1.
    destruct (l_chain_eq bs Hok esrc pos lim (S (N.to_nat (lim - pos))) rest0 pos1 nh0 false R0 Hp1)
      as (rest' & e & nx & fr & st & A1 & A2 & A3 & A4).
    { destruct R0 as (_ & B1 & B2). lia. }
    rewrite A1. cbn [bind].
    destruct (End rest' e nx fr st A3 ltac:(lia)) as (x & X1 & X2 & X3 & X4).
    exists x, rest', e, nx, fr, st. rewrite X1. repeat (split; [assumption || reflexivity || lia|]). exact X4. }
  destruct (nh =? 0) eqn:E0.
  - rewrite (raw_ext_eq bs s pos lim R). unfold lerr.
    destruct (lim - pos <? 8) eqn:E8.
    { cbn [bind].
      destruct (End s pos nh false (Some (ELen (mkLenError 8 (lim - pos) LsSlice LyIpv6ExtHeader 0), LyIpv6HopByHopHeader)) R ltac:(lia))
        as (x & X1 & X2 & X3 & X4).
      exists x, s, pos, nh, false, (Some (ELen (mkLenError 8 (lim - pos) LsSlice LyIpv6ExtHeader 0), LyIpv6HopByHopHeader)).
      split; [exact X1|]. split; [cbn; rewrite N.add_0_l; reflexivity|].
      repeat (split; [assumption || lia|]). exact X4. }
    destruct (lim - pos <? (B bs (pos + 1) + 1) * 8) eqn:El.
    { cbn [bind].
      destruct (End s pos nh false (Some (ELen (mkLenError ((B bs (pos + 1) + 1) * 8) (lim - pos) LsSlice LyIpv6ExtHeader 0), LyIpv6HopByHopHeader)) R ltac:(lia))
        as (x & X1 & X2 & X3 & X4).
      exists x, s, pos, nh, false, (Some (ELen (mkLenError ((B bs (pos + 1) + 1) * 8) (lim - pos) LsSlice LyIpv6ExtHeader 0), LyIpv6HopByHopHeader)).
      split; [exact X1|]. split; [cbn; rewrite N.add_0_l; reflexivity|].
      repeat (split; [assumption || lia|]). exact X4. }
    set (l := (B bs (pos + 1) + 1) * 8) in *.
    get_prefix R l h Eh Rh. rewrite Eh. cbn [bind].
    rewrite (repr_len _ _ _ _ Rh). replace (pos + l - pos) with l by lia.
    destruct (l <=? lim - pos) eqn:Ell; [|lia]. cbn [bind].
    unfold Ipv6RawExtHeaderSlice.next_header. rd8 Rh 0. rewrite N.add_0_r.
    assert (Hl : l <= lim - pos) by lia.
    pose proof (repr_drop bs s pos lim l R Hl) as Rd.
    apply (Walk _ (B bs pos) (pos + l) Rd). lia.
  - cbn [bind]. apply (Walk s nh pos R). lia.
Qed.

Lemma conv_abs_stop psrc csrc pos st :
  option_map (L.conv_ext_stop false (fun l => L.fix_len l pos csrc))
    (match st with
     | Some (ELen l, ly) => Some (ELen (le_add_offset (le_set_src l psrc) 40), ly)
     | o => o
     end)
  = option_map (abs_stop (pick_src psrc csrc) (pos + 40)) st.
Proof.
  destruct st as [[[l|c] ly]|]; cbn; [| |reflexivity].
  - destruct l as [r a s0 lay o]. rewrite fix_rel_len. cbn.
    replace (o + 40 + pos) with (o + (pos + 40)) by lia. reflexivity.
  - destruct c; reflexivity.
Qed.

Lemma l_v6_finish bs header hp pos lim' psrc inc csrc :
  bytes_ok bs -> repr bs header pos (pos + 40) -> repr bs hp (pos + 40) lim' ->
  exists v st, LaxIpv6Slice.finish header hp psrc inc = Ok (v, st) /\
    parts_ok bs pos (fun l => L.fix_len l pos csrc) (LIpV6 v) st
      (lwire_ipv6_parts bs csrc pos lim' psrc inc).
Proof.
  intros Hok Rh Rp. pose proof Rp as (_ & P1 & P2).
  unfold parts_ok, LaxIpv6Slice.finish, lwire_ipv6_parts, Ipv6HeaderSlice.next_header.
  cbn [L.net_of_ip LaxIpSlice.payload L.is_v4 lview_net]. rd8 Rh 6.
  destruct (l_exts_eq bs Hok (pick_src psrc csrc) hp (pos + 40) lim' (B bs (pos + 6)) Rp)
    as (x & rest & e & nx & fr & st & A1 & A2 & A3 & A4 & A5 & A6 & A7).
  rewrite A1, A2. cbn [bind].
  eexists _, _. split; [reflexivity|]. unfold lview_v6, lview_ipp. cbn.
  rewrite (repr_win _ _ _ _ Rh), (repr_win _ _ _ _ A5), (repr_win _ _ _ _ A3), A6, A7.
  replace (pos + 40 - pos) with 40 by lia.
  split; [reflexivity|]. split; [reflexivity|]. split; [apply conv_abs_stop|split; [exact A3|lia]].
Qed.

(* what the two callers do to an error of the header *)
Definition fix_hdr_err (csrc : len_source) (pos : N) (e : slice_error) : slice_error :=
  match e with
  | ELen l => ELen (L.fix_len l pos csrc)
  | EContent c => EContent c
  end.

Lemma l_ipslice_err bs s pos lim csrc e :
  repr bs s pos lim -> ip_hdr_fault bs csrc pos lim = Some e ->
  exists e0, LaxIpSlice.from_slice s = Err e0 /\ fix_hdr_err csrc pos e0 = e.
Proof.
  intros R. pose proof R as (_ & HR1 & HR2).
  unfold ip_hdr_fault, LaxIpSlice.from_slice, lerr. rewrite (repr_len _ _ _ _ R).
  destruct (lim - pos =? 0) eqn:E0.
  { intros H. injection H as <-. eexists. split; [reflexivity|]. cbn [fix_hdr_err]. now rewrite fix_len_slice. }
  rd8 R 0. rewrite N.add_0_r, shr4_div16, land15_mod.
  destruct (B bs pos / 16 =? 4) eqn:E4.
  { destruct (B bs pos mod 16 <? 5) eqn:Ei.
    { intros H. injection H as <-. eexists. split; reflexivity. }
    destruct (lim - pos <? B bs pos mod 16 * 4) eqn:Eh; [|discriminate].
    intros H. injection H as <-. eexists. split; [reflexivity|]. cbn [fix_hdr_err]. now rewrite fix_len_slice. }
  destruct (B bs pos / 16 =? 6) eqn:E6.
  { destruct (lim - pos <? 40) eqn:E40; [|discriminate].
    intros H. injection H as <-. eexists. split; [reflexivity|]. cbn [fix_hdr_err]. now rewrite fix_len_slice. }
  intros H. injection H as <-. eexists. split; reflexivity.
Qed.

Lemma l_ipslice_ok bs s pos lim csrc :
  bytes_ok bs -> repr bs s pos lim -> ip_hdr_fault bs csrc pos lim = None ->
  exists ip st, LaxIpSlice.from_slice s = Ok (ip, st) /\
    parts_ok bs pos (fun l => L.fix_len l pos csrc) ip st (lwire_ip_parts bs csrc pos lim).
Proof.
  intros Hok R. pose proof R as (_ & HR1 & HR2).
  unfold ip_hdr_fault, LaxIpSlice.from_slice, lwire_ip_parts, lerr. rewrite (repr_len _ _ _ _ R).
  destruct (lim - pos =? 0) eqn:E0; [discriminate|].
  rd8 R 0. rewrite N.add_0_r, shr4_div16, land15_mod.
  destruct (B bs pos / 16 =? 4) eqn:E4.
  - destruct (B bs pos mod 16 <? 5) eqn:Ei; [discriminate|].
    set (hl := B bs pos mod 16 * 4) in *.
    destruct (lim - pos <? hl) eqn:Eh; [discriminate|]. intros _.
    assert (Hhl : 20 <= hl) by (subst hl; lia).
    get_prefix R hl header Ehd Rhd. rewrite Ehd. cbn [bind].
    unfold Ipv4HeaderSlice.total_len. rd16 Rhd 2.
    unfold LaxIpv4Slice.select_payload. rewrite (repr_len _ _ _ _ R).
    assert (Fin : forall hp lim' psrc inc, repr bs hp (pos + hl) lim' ->
      exists ip st,
        (let* r := LaxIpv4Slice.finish header hp psrc inc in
         let '(v, stop) := r in Ok (LIpV4 v, wrap4_stop stop)) = Ok (ip, st) /\
        parts_ok bs pos (fun l => L.fix_len l pos csrc) ip st
          (lwire_ipv4_parts bs csrc pos hl lim' psrc inc)).
    { intros hp lim' psrc inc Rhp.
      destruct (l_v4_finish bs header hp pos hl lim' psrc inc csrc Hok Rhd Rhp Hhl) as (v & st & E & F).
      rewrite E. cbn [bind]. eexists _, _. split; [reflexivity|]. exact F. }
    destruct (W bs (pos + 2) <? hl) eqn:Et.
    { rewrite subN_ok by lia. cbn [bind].
      assert (Hh : hl <= lim - pos) by lia.
      destruct (repr_rest bs s pos lim hl R Hh) as (hp & Ehp & Rhp). rewrite Ehp. cbn [bind].
      apply Fin. exact Rhp. }
    destruct (lim - pos <? W bs (pos + 2)) eqn:Et2.
    { rewrite subN_ok by lia. cbn [bind].
      assert (Hh : hl <= lim - pos) by lia.
      destruct (repr_rest bs s pos lim hl R Hh) as (hp & Ehp & Rhp). rewrite Ehp. cbn [bind].
      apply Fin. exact Rhp. }
    rewrite subN_ok by lia. cbn [bind].
    get_sub R hl (W bs (pos + 2) - hl) hp Ehp Rhp. rewrite Ehp. cbn [bind].
    replace (pos + hl + (W bs (pos + 2) - hl)) with (pos + W bs (pos + 2)) in Rhp by lia.
    apply Fin. exact Rhp.
  - destruct (B bs pos / 16 =? 6) eqn:E6; [|discriminate].
    destruct (lim - pos <? 40) eqn:E40; [discriminate|]. intros _.
    get_prefix R 40 header Eh Rh. rewrite Eh. cbn [bind].
    unfold Ipv6HeaderSlice.payload_length. rd16 Rh 4.
    rewrite (N.eqb_sym 0 (W bs (pos + 4))).
    assert (Fin : forall hp lim' psrc inc, repr bs hp (pos + 40) lim' ->
      exists ip st,
        (let* r := LaxIpv6Slice.finish header hp psrc inc in
         let '(v, stop) := r in Ok (LIpV6 v, stop)) = Ok (ip, st) /\
        parts_ok bs pos (fun l => L.fix_len l pos csrc) ip st
          (lwire_ipv6_parts bs csrc pos lim' psrc inc)).
    { intros hp lim' psrc inc Rhp.
      destruct (l_v6_finish bs header hp pos lim' psrc inc csrc Hok Rh Rhp) as (v & st & E & F).
      rewrite E. cbn [bind]. eexists _, _. split; [reflexivity|]. exact F. }
    destruct ((W bs (pos + 4) =? 0) && (40 <? lim - pos)) eqn:Ez.
    { rewrite subN_ok by lia. cbn [bind].
      assert (H40 : 40 <= lim - pos) by lia.
      destruct (repr_rest bs s pos lim 40 R H40) as (hp & Ehp & Rhp). rewrite Ehp. cbn [bind].
      apply Fin. exact Rhp. }
    rewrite subN_ok by lia. cbn [bind].
    assert ((lim - pos - 40 <? W bs (pos + 4)) = (lim - pos <? 40 + W bs (pos + 4))) as -> by lia.
    destruct (lim - pos <? 40 + W bs (pos + 4)) eqn:El.
    { assert (H40 : 40 <= lim - pos) by lia.
      destruct (repr_rest bs s pos lim 40 R H40) as (hp & Ehp & Rhp). rewrite Ehp. cbn [bind].
      apply Fin. exact Rhp. }
    get_sub R 40 (W bs (pos + 4)) hp Ehp Rhp. rewrite Ehp. cbn [bind].
    apply Fin. exact Rhp.
Qed.

Lemma l_ip_tail_eq bs (Hok : bytes_ok bs) r off csrc' s pos ip st lp fx csrc lim :
  repr bs s pos lim -> off = pos -> lview r = lp ->
  parts_ok bs pos fx ip st (lwire_ip_parts bs csrc pos lim) ->
  lvres_of
    (let r2 := L.with_opt_stop (L.with_net r (L.net_of_ip ip))
                 (option_map (L.conv_ext_stop (L.is_v4 ip) fx) st) in
     let payload := LaxIpSlice.payload ip in
     let* d := L.ptr_diff (lipp_slice payload) s in
     L.slice_transport (mkLaxCursor (off + d) (csrc' payload) r2) payload)
  = LVOk (lwire_ip_body bs lp csrc pos lim).
Proof.
  intros R -> <- F. unfold lwire_ip_body, parts_ok in *.
  destruct (lwire_ip_parts bs csrc pos lim) as [[[net pl] st'] lim'].
  destruct F as (F1 & F2 & F3 & F4 & F5). cbv zeta.
  unfold L.ptr_diff. rewrite (repr_off _ _ _ _ F4), (repr_off _ _ _ _ R).
  rewrite subN_ok by lia. cbn [bind].
  rewrite (l_transport_eq bs _ _ (fst (lvip_win pl)) lim' Hok F4) by (cbn [lc_offset]; lia).
  cbn [lc_result]. rewrite lview_with_opt_stop, lview_with_net, F1, F3. rewrite <- F2. reflexivity.
Qed.

Lemma l_slice_ip_eq bs lc s pos lim :
  bytes_ok bs -> repr bs s pos lim -> lc_offset lc = pos ->
  lvres_of (L.slice_ip lc s) = LVOk (lwire_ip bs (lview (lc_result lc)) (lc_src lc) pos lim).
Proof.
  intros Hok R Hoff. unfold L.slice_ip, lwire_ip.
  destruct (ip_hdr_fault bs (lc_src lc) pos lim) as [e|] eqn:HF.
  - destruct (l_ipslice_err bs s pos lim (lc_src lc) e R HF) as (e0 & E & Fx). rewrite E.
    destruct e0 as [l|c]; cbn [fix_hdr_err] in Fx; subst e; cbn [lvres_of];
      rewrite lview_with_stop, ?Hoff; reflexivity.
  - destruct (l_ipslice_ok bs s pos lim (lc_src lc) Hok R HF) as (ip & st & E & F). rewrite E.
    apply (l_ip_tail_eq bs Hok (lc_result lc) (lc_offset lc)
             (fun payload => if is_slice_src (lipp_src payload) then lc_src lc else lipp_src payload)
             s pos ip st _ (fun l => L.fix_len l (lc_offset lc) (lc_src lc)) (lc_src lc) lim R Hoff eq_refl).
    rewrite Hoff. exact F.
Qed.

Lemma l_slice_arp_eq bs lc s pos lim :
  bytes_ok bs -> repr bs s pos lim -> lc_offset lc = pos ->
  lvres_of (L.slice_arp lc s) = LVOk (lwire_arp bs (lview (lc_result lc)) (lc_src lc) pos lim).
Proof.
  intros Hok R Hoff. unfold L.slice_arp, ArpPacketSlice.from_slice, lwire_arp, lcut, lerr.
  rewrite (repr_len _ _ _ _ R).
  destruct (lim - pos <? 8) eqn:E8.
  { cbn [lvres_of]. rewrite lview_with_stop, fix_len_slice, Hoff. reflexivity. }
  rd8 R 4. rd8 R 5.
  set (l := 8 + B bs (pos + 4) * 2 + B bs (pos + 5) * 2) in *.
  destruct (lim - pos <? l) eqn:El.
  - cbn [lvres_of]. rewrite lview_with_stop. unfold L.fix_len, le_add_offset, le_set_src. cbn.
    rewrite Hoff, N.add_0_l. reflexivity.
  - get_prefix R l a Ea Ra. rewrite Ea. cbn [lvres_of]. rewrite lview_with_net. cbn [lview_net].
    rewrite (repr_win _ _ _ _ Ra). replace (pos + l - pos) with l by lia. reflexivity.
Qed.

Lemma repr_subU_eq bs s pos lim k n :
  repr bs s pos lim -> k + n <= lim - pos -> subU s k n = Ok (pos + k, take n (drop k (snd s))).
Proof.
  intros R H. rewrite subU_eq by (rewrite (repr_len _ _ _ _ R); exact H).
  now rewrite (repr_off _ _ _ _ R : fst s = pos).
Qed.

(* the SecTAG of an accepting verdict, as a slice *)
Section SecTagOk.
  Variables (bs : bytes) (s : slice) (pos lim hl body : N) (unmod has_sl inc : bool).
  Hypothesis Hok : bytes_ok bs.
  Hypothesis R : repr bs s pos lim.
  Hypothesis Ev : sectag_dec bs pos lim = StOk hl body unmod has_sl inc.

  Lemma sectag_header_repr : repr bs (pos, take hl (snd s)) pos (pos + hl).
  Proof.
    destruct (sectag_ok _ _ _ _ _ _ _ _ Ev) as (_ & _ & Hhl & _).
    pose proof (repr_sub bs s pos lim 0 hl R ltac:(lia)) as Rh.
    now rewrite N.add_0_r, drop0 in Rh.
  Qed.

  Lemma sectag_header_len : Macsec.header_len (pos, take hl (snd s)) = Ok hl.
  Proof.
    pose proof sectag_header_repr as Rh. destruct (sectag_ok _ _ _ _ _ _ _ _ Ev) as (Eh & _).
    rewrite Eh in *. exact (macsec_header_len_eq bs _ pos Hok Rh).
  Qed.
End SecTagOk.

(* LaxMacsecSlice::from_slice in closed form *)
Lemma lax_macsec_eq bs s pos lim :
  bytes_ok bs -> repr bs s pos lim ->
  LaxMacsecSlice.from_slice s =
  match sectag_dec bs pos lim with
  | StShort req => lerr req (lim - pos) LsSlice LyMacsecHeader
  | StBad c => Err (EContent c)
  | StOk hl body unmod has_sl inc =>
      let short := has_sl && negb inc in
      let payload := (pos + hl, take (if short then body else lim - pos - hl) (drop hl (snd s))) in
      let psrc := if short then LsMacsecShortLength else LsSlice in
      Ok (mkLaxMacsec (pos, take hl (snd s))
            (if unmod then LMpUnmodified (mkLaxEp inc (W bs (pos + hl - 2)) psrc payload)
             else LMpModified inc payload))
  end.
Proof.
  intros Hok R. unfold LaxMacsecSlice.from_slice. rewrite (macsec_header_eq bs s pos lim Hok R).
  pose proof (sectag_header_repr bs s pos lim) as Rh. unfold sectag_dec in *.
  destruct (lim - pos <? 6); [reflexivity|].
  destruct (128 <=? B bs pos); [reflexivity|].
  destruct (((B bs pos / 4) mod 4 =? 0) && (B bs (pos + 1) mod 64 =? 1)) eqn:Eu; [reflexivity|].
  destruct (lim - pos <? macsec_hl (B bs pos)) eqn:Eh; [reflexivity|].
  specialize (Rh _ _ _ _ _ R eq_refl). pose proof (macsec_hl_bounds (B bs pos)) as Hb. cbn [bind].
  rewrite (macsec_expected_payload_len_eq bs _ pos Hok Rh), (macsec_header_len_eq bs _ pos Hok Rh),
    (macsec_next_ether_type_eq bs _ pos Hok Rh). cbn [bind].
  rewrite (repr_len _ _ _ _ R), (repr_len _ _ _ _ Rh).
  replace (pos + macsec_hl (B bs pos) - pos) with (macsec_hl (B bs pos)) by lia.
  destruct (0 <? B bs (pos + 1) mod 64) eqn:Esl; cbn [andb bind].
  - assert (Eb : (if negb ((B bs pos / 4) mod 4 =? 0) then Some (B bs (pos + 1) mod 64)
                  else if B bs (pos + 1) mod 64 <? 2 then None else Some (B bs (pos + 1) mod 64 - 2))
                 = Some (macsec_body (B bs pos) (B bs (pos + 1) mod 64))).
    { unfold macsec_body. destruct ((B bs pos / 4) mod 4 =? 0); cbn [negb andb] in *; [|reflexivity].
      now assert ((B bs (pos + 1) mod 64 <? 2) = false) as -> by lia. }
    rewrite Eb.
    destruct (lim - pos <? macsec_hl (B bs pos) + macsec_body (B bs pos) (B bs (pos + 1) mod 64)) eqn:Ebd;
      cbn [negb].
    + rewrite subN_ok by lia. cbn [bind]. rewrite (repr_subU_eq bs s pos lim _ _ R) by lia.
      destruct ((B bs pos / 4) mod 4 =? 0); reflexivity.
    + rewrite (repr_subU_eq bs s pos lim _ _ R) by lia. destruct ((B bs pos / 4) mod 4 =? 0); reflexivity.
  - rewrite subN_ok by lia. cbn [bind]. rewrite (repr_subU_eq bs s pos lim _ _ R) by lia.
    destruct ((B bs pos / 4) mod 4 =? 0); reflexivity.
Qed.

Section LaxMacsecSpec.
  Variables (bs : bytes) (s : slice) (pos lim : N).
  Hypothesis Hok : bytes_ok bs.
  Hypothesis R : repr bs s pos lim.

  Let tci := B bs pos.
  Let sl := B bs (pos + 1) mod 64.
  Let unmod := (tci / 4) mod 4 =? 0.
  Let sc := negb ((tci / 32) mod 2 =? 0).
  Let hl := 6 + (if unmod then 2 else 0) + (if sc then 8 else 0).
  Let body := if unmod then sl - 2 else sl.
  Let a := lim - pos.
  Let inc := (0 <? sl) && (a <? hl + body).
  Let short := (0 <? sl) && negb (a <? hl + body).
  Let plen := if short then body else a - hl.
  Let psrc := if short then LsMacsecShortLength else LsSlice.

  Lemma lax_macsec_from_slice_eq :
    LaxMacsecSlice.from_slice s =
      (if a <? 6 then lerr 6 a LsSlice LyMacsecHeader
       else if 128 <=? tci then Err (EContent CeMacsecVersion)
       else if unmod && (sl =? 1) then Err (EContent CeMacsecUnmodifiedShortLen)
       else if a <? hl then lerr hl a LsSlice LyMacsecHeader
       else
         let header := (pos, take hl (snd s)) in
         let payload := (pos + hl, take plen (drop hl (snd s))) in
         Ok (mkLaxMacsec header
               (if unmod then LMpUnmodified (mkLaxEp inc (W bs (pos + hl - 2)) psrc payload)
                else LMpModified inc payload))).
  Proof.
    rewrite (lax_macsec_eq bs s pos lim Hok R). unfold sectag_dec.
    subst psrc plen short inc a body hl sc unmod sl tci.
    fold (macsec_hl (B bs pos)). fold (macsec_body (B bs pos) (B bs (pos + 1) mod 64)).
    destruct (lim - pos <? 6); [reflexivity|].
    destruct (128 <=? B bs pos); [reflexivity|].
    destruct (((B bs pos / 4) mod 4 =? 0) && (B bs (pos + 1) mod 64 =? 1)); [reflexivity|].
    destruct (lim - pos <? macsec_hl (B bs pos)); [reflexivity|].
    destruct (0 <? B bs (pos + 1) mod 64); reflexivity.
  Qed.
End LaxMacsecSpec.

Lemma lview_push_ext r x r' :
  L.push_ext r x = Ok r' ->
  lview r' = lwith_ext (lview r) (lview_ext x) /\ len (lsp_exts r') = len (lsp_exts r) + 1.
Proof.
  unfold L.push_ext. destruct (len (lsp_exts r) <? LINK_EXTS_CAP); [|discriminate].
  intros E. injection E as <-. cbn. unfold lview, lwith_ext. cbn.
  rewrite map_app. cbn. split; [reflexivity|]. rewrite len_app. reflexivity.
Qed.

Lemma l_push_ext_ok r x : len (lsp_exts r) < 3 -> exists r', L.push_ext r x = Ok r'.
Proof.
  intros H. unfold L.push_ext, LINK_EXTS_CAP.
  destruct (len (lsp_exts r) <? 3) eqn:E; [eexists; reflexivity|lia].
Qed.

Lemma add_off0 req a src ly off :
  le_add_offset (mkLenError req a src ly 0) off = mkLenError req a src ly off.
Proof. unfold le_add_offset. cbn. now rewrite N.add_0_l. Qed.

(* lwire_ether by the kind of the ether type *)
Lemma lwire_ether_full bs p et csrc pos lim :
  is_vlan et || (et =? 35045) = true -> lwire_ether bs 0 p et csrc pos lim = p.
Proof. cbn [lwire_ether]. destruct (is_vlan et); cbn [orb]; [reflexivity|]. now intros ->. Qed.

Lemma lwire_ether_vlan bs c p et csrc pos lim :
  is_vlan et = true ->
  lwire_ether bs (S c) p et csrc pos lim =
  if lim - pos <? 4 then lcut p 4 (lim - pos) LsSlice LyVlanHeader pos LyVlanHeader
  else lwire_ether bs c (lwith_ext p (LVVlan (pos, lim - pos))) (W bs (pos + 2)) csrc (pos + 4) lim.
Proof. intros E. cbn [lwire_ether]. now rewrite E. Qed.

Lemma lwire_ether_net bs cap p et csrc pos lim :
  is_vlan et = false -> (et =? 35045) = false ->
  lwire_ether bs cap p et csrc pos lim =
  if et =? 2054 then lwire_arp bs p csrc pos lim
  else if (et =? 2048) || (et =? 34525) then lwire_ip bs p csrc pos lim else p.
Proof. intros E1 E2. destruct cap; cbn [lwire_ether]; now rewrite E1, E2. Qed.

Lemma l_net_eq bs lc s et pos lim :
  bytes_ok bs -> repr bs s pos lim -> lc_offset lc = pos ->
  lvres_of (if et =? ET_ARP then L.slice_arp lc s
            else if et =? ET_IPV4 then L.slice_ip lc s
            else if et =? ET_IPV6 then L.slice_ip lc s
            else Ok (lc_result lc)) =
  LVOk (if et =? 2054 then lwire_arp bs (lview (lc_result lc)) (lc_src lc) pos lim
        else if (et =? 2048) || (et =? 34525) then lwire_ip bs (lview (lc_result lc)) (lc_src lc) pos lim
        else lview (lc_result lc)).
Proof.
  intros Hok R Hoff. change ET_ARP with 2054. change ET_IPV4 with 2048. change ET_IPV6 with 34525.
  destruct (et =? 2054); [now apply l_slice_arp_eq|].
  destruct (et =? 2048); [now apply l_slice_ip_eq|].
  destruct (et =? 34525); [now apply l_slice_ip_eq|reflexivity].
Qed.

Lemma l_ether_eq bs (Hok : bytes_ok bs) cap :
  forall fuel lc ep pos lim,
    (cap < fuel)%nat ->
    N.of_nat cap + len (lsp_exts (lc_result lc)) = 3 ->
    repr bs (ep_slice ep) pos lim -> lc_offset lc = pos ->
    lvres_of (L.slice_ether_type_loop fuel lc ep) =
    LVOk (lwire_ether bs cap (lview (lc_result lc)) (ep_ether_type ep) (lc_src lc) pos lim).
Proof.
  induction cap as [|cap IH]; intros fuel lc ep pos lim Hf Hcap R Hoff;
    (destruct fuel as [|f]; [lia|]); pose proof R as (_ & HR1 & HR2);
    cbn [L.slice_ether_type_loop]; unfold L.is_vlan_type, LINK_EXTS_CAP;
    change (SlicedPacketCursor.is_vlan_type (ep_ether_type ep)) with (is_vlan (ep_ether_type ep));
    change ET_MACSEC with 35045.
  - (* the list of link extensions is full *)
    assert ((3 <=? len (lsp_exts (lc_result lc))) = true) as -> by lia.
    destruct (is_vlan (ep_ether_type ep)) eqn:Ev; [now rewrite lwire_ether_full by now rewrite Ev|].
    destruct (ep_ether_type ep =? 35045) eqn:Em; [now rewrite lwire_ether_full by now rewrite Ev, Em|].
    rewrite lwire_ether_net by assumption. now apply l_net_eq.
  - assert ((3 <=? len (lsp_exts (lc_result lc))) = false) as -> by lia.
    destruct (is_vlan (ep_ether_type ep)) eqn:Ev.
    { (* VLAN tag *)
      rewrite lwire_ether_vlan by exact Ev.
      unfold SingleVlanSlice.from_slice, lerr, lcut. rewrite (repr_len _ _ _ _ R).
      destruct (lim - pos <? 4) eqn:E4.
      { cbn [lvres_of]. rewrite lview_with_stop, add_off0, Hoff. reflexivity. }
      unfold SingleVlanSlice.payload, SingleVlanSlice.ether_type, SingleVlanSlice.payload_slice.
      rd16 R 2. rewrite (repr_len _ _ _ _ R). rewrite subN_ok by lia. cbn [bind].
      assert (H4 : 4 <= lim - pos) by lia.
      destruct (repr_rest bs (ep_slice ep) pos lim 4 R H4) as (pl & Epl & Rpl).
      rewrite Epl. cbn [bind].
      destruct (l_push_ext_ok (lc_result lc) (LLeVlan (ep_slice ep))) as (r' & Er'); [lia|].
      rewrite Er'. cbn [bind].
      destruct (lview_push_ext _ _ _ Er') as (V1 & V2).
      rewrite (IH f _ _ (pos + 4) lim); cbn [ep_ether_type ep_slice lc_result lc_offset lc_src].
      + rewrite V1. cbn [lview_ext]. rewrite (repr_win _ _ _ _ R). reflexivity.
      + lia.
      + lia.
      + exact Rpl.
      + now rewrite Hoff. }
    destruct (ep_ether_type ep =? 35045) eqn:Em.
    2:{ rewrite lwire_ether_net by assumption. now apply l_net_eq. }
    (* MACsec *)
    apply N.eqb_eq in Em. rewrite Em, lwire_ether_macsec.
    rewrite (lax_macsec_eq bs (ep_slice ep) pos lim Hok R). unfold lerr, lcut.
    destruct (sectag_dec bs pos lim) as [req|c|hl body unmod has_sl inc] eqn:Ed.
    { cbn [lvres_of le_layer]. rewrite lview_with_stop, add_off0, Hoff. reflexivity. }
    { reflexivity. }
    cbv zeta. cbn [lms_header lms_payload].
    rewrite (sectag_header_len bs _ pos lim _ _ _ _ _ Hok R Ed). cbn [bind].
    pose proof (sectag_header_repr bs _ pos lim _ _ _ _ _ R Ed) as Rh.
    destruct (sectag_ok _ _ _ _ _ _ _ _ Ed) as (_ & _ & Hhl & _ & _ & _ & Einc).
    set (short := has_sl && negb inc) in *.
    set (plen := if short then body else lim - pos - hl) in *.
    assert (Elim : pos + hl + plen = (if short then pos + hl + body else lim)).
    { subst plen short inc. destruct has_sl, (lim - pos <? hl + body) eqn:Eb; cbn [andb negb]; lia. }
    assert (Hplen : hl + plen <= lim - pos).
    { subst plen short inc. destruct has_sl, (lim - pos <? hl + body) eqn:Eb; cbn [andb negb]; lia. }
    clearbody plen short. clear Einc.
    pose proof (repr_sub bs (ep_slice ep) pos lim hl plen R Hplen) as Rp.
    set (psrc := if short then LsMacsecShortLength else LsSlice) in *.
    destruct (l_push_ext_ok (lc_result lc)
                (LLeMacsec (mkLaxMacsec (pos, take hl (snd (ep_slice ep)))
                   (if unmod
                    then LMpUnmodified (mkLaxEp inc (W bs (pos + hl - 2)) psrc
                           (pos + hl, take plen (drop hl (snd (ep_slice ep)))))
                    else LMpModified inc (pos + hl, take plen (drop hl (snd (ep_slice ep)))))))) as (r' & Er'); [lia|].
    rewrite Er'. cbn [bind].
    destruct (lview_push_ext _ _ _ Er') as (V1 & V2).
    destruct unmod.
    + cbn [lep_src lep_ether_type lep_slice].
      rewrite (IH f _ _ (pos + hl) (pos + hl + plen));
        cbn [ep_ether_type ep_slice lc_result lc_offset lc_src].
      * rewrite V1. cbn [lview_ext]. unfold lview_macsec, lview_ep.
        cbn [lms_header lms_payload lep_incomplete lep_ether_type lep_src lep_slice].
        rewrite (repr_win _ _ _ _ Rh), (repr_win _ _ _ _ Rp).
        replace (pos + hl - pos) with hl by lia.
        rewrite Elim. unfold pick_src. now destruct (is_slice_src psrc).
      * lia.
      * lia.
      * exact Rp.
      * now rewrite Hoff.
    + cbn [lvres_of]. rewrite V1. cbn [lview_ext]. unfold lview_macsec.
      cbn [lms_header lms_payload].
      rewrite (repr_win _ _ _ _ Rh), (repr_win _ _ _ _ Rp).
      replace (pos + hl - pos) with hl by lia. now rewrite Elim.
Qed.

Theorem lax_from_ether_type_eq bs et :
  bytes_ok bs -> lvres_of (LaxSlicedPacket.from_ether_type et bs) = lwire_ether_type bs et.
Proof.
  intros Hok. unfold LaxSlicedPacket.from_ether_type, L.parse_from_ether_type, L.slice_ether_type,
    lwire_ether_type, n_bs.
  pose proof (repr_whole bs) as R.
  rewrite (l_ether_eq bs Hok 3 5 _ (mkEtherPayload et LsSlice (mk_slice bs)) 0 (len bs));
    cbn [ep_ether_type ep_slice lc_result lc_offset lc_src]; auto; lia.
Qed.

Theorem lax_from_ethernet_eq bs :
  bytes_ok bs -> lvres_of (LaxSlicedPacket.from_ethernet bs) = lwire_ethernet bs.
Proof.
  intros Hok. unfold LaxSlicedPacket.from_ethernet, L.parse_from_ethernet2, lwire_ethernet, n_bs.
  pose proof (repr_whole bs) as R.
  unfold Ethernet2Slice.from_slice_without_fcs, lerr. rewrite (repr_len _ _ _ _ R). rewrite N.sub_0_r.
  destruct (len bs <? 14) eqn:E14; [reflexivity|]. cbn [bind].
  unfold Ethernet2Slice.payload, Ethernet2Slice.ether_type, Ethernet2Slice.payload_slice.
  rd16 R 12. rewrite (repr_len _ _ _ _ R). rewrite N.sub_0_r.
  rewrite subN_ok by lia. cbn [bind].
  assert (H14 : 14 <= len bs - 0) by lia.
  destruct (repr_rest bs (mk_slice bs) 0 (len bs) 14 R H14) as (pl & Epl & Rpl).
  rewrite N.sub_0_r in Epl. rewrite Epl. cbn [bind].
  unfold L.slice_ether_type.
  rewrite (l_ether_eq bs Hok 3 5 _ (mkEtherPayload (W bs (0 + 12)) LsSlice pl) 14 (len bs));
    cbn [ep_ether_type ep_slice lc_result lc_offset lc_src]; auto; lia.
Qed.

Theorem lax_from_ip_eq bs :
  bytes_ok bs -> lvres_of (LaxSlicedPacket.from_ip bs) = lwire_from_ip bs.
Proof.
  intros Hok. unfold LaxSlicedPacket.from_ip, L.parse_from_ip, lwire_from_ip, n_bs.
  pose proof (repr_whole bs) as R.
  destruct (ip_hdr_fault bs LsSlice 0 (len bs)) as [e|] eqn:HF.
  - destruct (l_ipslice_err bs (mk_slice bs) 0 (len bs) LsSlice e R HF) as (e0 & E & Fx). rewrite E.
    cbn [bind lvres_of]. f_equal. rewrite <- Fx. destruct e0 as [l|c]; cbn [fix_hdr_err]; [|reflexivity].
    now rewrite fix_len_id.
  - destruct (l_ipslice_ok bs (mk_slice bs) 0 (len bs) LsSlice Hok R HF) as (ip & st & E & F). rewrite E.
    cbn [bind].
    pose proof (l_ip_tail_eq bs Hok L.empty 0 (fun _ => LsSlice) (mk_slice bs) 0 ip st _ (fun l => l)
                  LsSlice (len bs) R eq_refl eq_refl) as T.
    assert (F' : parts_ok bs 0 (fun l => l) ip st (lwire_ip_parts bs LsSlice 0 (len bs)))
      by (revert F; apply parts_ok_ext; intros l; apply fix_len_id).
    specialize (T F'). cbv zeta in T. change (lview L.empty) with lempty_packet in T.
    rewrite <- T. clear T F F'.
    destruct (L.ptr_diff (lipp_slice (LaxIpSlice.payload ip)) (mk_slice bs)) as [d|e|b]; cbn [bind]; try reflexivity.
    rewrite N.add_0_l. destruct st; reflexivity.
Qed.

(* the three entry points where they return a packet: its view is the reference decoding *)
Lemma lvres_ok r p : lvres_of r = LVOk p -> exists r', r = Ok r' /\ lview r' = p.
Proof.
  destruct r as [r'|e|b]; cbn [lvres_of]; try discriminate.
  intros H. exists r'. split; [reflexivity|]. now injection H.
Qed.

Lemma lax_from_ethernet_ok bs :
  bytes_ok bs -> 14 <= len bs ->
  exists r', LaxSlicedPacket.from_ethernet bs = Ok r' /\
    lview r' = lwire_ether bs 3 (mkLVPacket (Some (VEthernet2 (0, len bs))) nil None None None)
                 (W bs 12) LsSlice 14 (len bs).
Proof.
  intros Hok H14. apply lvres_ok. rewrite (lax_from_ethernet_eq bs Hok). unfold lwire_ethernet, n_bs.
  now assert ((len bs <? 14) = false) as -> by lia.
Qed.

Lemma lax_from_ether_type_ok bs et :
  bytes_ok bs ->
  exists r', LaxSlicedPacket.from_ether_type et bs = Ok r' /\
    lview r' = lwire_ether bs 3
                 (mkLVPacket (Some (VEtherPayload (mkVEp et LsSlice (0, len bs)))) nil None None None)
                 et LsSlice 0 (len bs).
Proof. intros Hok. apply lvres_ok. now rewrite (lax_from_ether_type_eq bs et Hok). Qed.

Lemma lax_from_ip_ok bs :
  bytes_ok bs -> ip_hdr_fault bs LsSlice 0 (len bs) = None ->
  exists r', LaxSlicedPacket.from_ip bs = Ok r' /\
    lview r' = lwire_ip_body bs lempty_packet LsSlice 0 (len bs).
Proof.
  intros Hok HF. apply lvres_ok. rewrite (lax_from_ip_eq bs Hok). unfold lwire_from_ip, n_bs.
  now rewrite HF.
Qed.

Lemma lvres_of_bug r b : r = Bug b -> lvres_of r = LVBug b.
Proof. now intros ->. Qed.

Theorem lax_never_bug bs et b : bytes_ok bs ->
  LaxSlicedPacket.from_ethernet bs <> Bug b /\
  LaxSlicedPacket.from_ether_type et bs <> Bug b /\
  LaxSlicedPacket.from_ip bs <> Bug b.
Proof.
  intros Hok. repeat split; intros E; apply lvres_of_bug in E.
  - rewrite (lax_from_ethernet_eq bs Hok) in E. unfold lwire_ethernet in E.
    destruct (n_bs bs <? 14); discriminate.
  - rewrite (lax_from_ether_type_eq bs et Hok) in E. discriminate.
  - rewrite (lax_from_ip_eq bs Hok) in E. unfold lwire_from_ip in E.
    destruct (ip_hdr_fault bs LsSlice 0 (n_bs bs)); discriminate.
Qed.

Definition no_bug {A} (r : res A) : Prop := forall b, r <> Bug b.

Lemma nb_laxip bs s pos lim : bytes_ok bs -> repr bs s pos lim -> no_bug (LaxIpSlice.from_slice s).
Proof.
  intros Hok R b E.
  destruct (ip_hdr_fault bs LsSlice pos lim) as [e|] eqn:HF.
  - destruct (l_ipslice_err bs s pos lim LsSlice e R HF) as (e0 & E0 & _). congruence.
  - destruct (l_ipslice_ok bs s pos lim LsSlice Hok R HF) as (ip & st & E0 & _). congruence.
Qed.

Lemma nb_laxv4 bs s pos lim : bytes_ok bs -> repr bs s pos lim -> no_bug (LaxIpv4Slice.from_slice s).
Proof.
  intros Hok R b E.
  destruct (Ipv4HeaderSlice.from_slice s) as [h|e|b0] eqn:Eh.
  - pose proof (laxip_v4_arm s h Eh) as A. rewrite E in A. cbn in A.
    exact (nb_laxip bs s pos lim Hok R b A).
  - unfold LaxIpv4Slice.from_slice in E. rewrite Eh in E. discriminate.
  - exact (nb_ipv4h s b0 Eh).
Qed.

Lemma nb_laxv6 bs s pos lim : bytes_ok bs -> repr bs s pos lim -> no_bug (LaxIpv6Slice.from_slice s).
Proof.
  intros Hok R b E.
  destruct (Ipv6HeaderSlice.from_slice s) as [h|e|b0] eqn:Eh.
  - pose proof (laxip_v6_arm s h Eh) as A. rewrite E in A. cbn in A.
    exact (nb_laxip bs s pos lim Hok R b A).
  - unfold LaxIpv6Slice.from_slice in E. rewrite Eh in E. discriminate.
  - exact (nb_ipv6h s b0 Eh).
Qed.

Lemma nb_laxmacsec bs s pos lim : bytes_ok bs -> repr bs s pos lim -> no_bug (LaxMacsecSlice.from_slice s).
Proof.
  intros Hok R b. rewrite (lax_macsec_eq bs s pos lim Hok R).
  destruct (sectag_dec bs pos lim); discriminate.
Qed.

Lemma nb_laxexts6 bs s pos lim nh : bytes_ok bs -> repr bs s pos lim -> no_bug (LaxIpv6Exts.from_slice_lax nh s).
Proof.
  intros Hok R b E.
  destruct (l_exts_eq bs Hok LsSlice s pos lim nh R) as (x & rest & e & nx & fr & st & A & _). congruence.
Qed.

Lemma nb_laxexts4 bs s pos lim nh : repr bs s pos lim -> no_bug (LaxIpv4Exts.from_slice_lax nh s).
Proof.
  intros R b. pose proof R as (_ & HR1 & HR2). unfold LaxIpv4Exts.from_slice_lax.
  destruct (IPN_AUTH =? nh); [|discriminate].
  rewrite (ah_eq bs s pos lim R). unfold lerr.
  destruct (lim - pos <? 12) eqn:E12; [discriminate|].
  destruct (B bs (pos + 1) =? 0); [discriminate|].
  destruct (lim - pos <? (B bs (pos + 1) + 2) * 4) eqn:El; [discriminate|].
  destruct (hdr_step bs s pos lim ((B bs (pos + 1) + 2) * 4) R ltac:(lia))
    as (h & r' & Eh & Rh & Eb & En & Er & Rr).
  rewrite Eh, En. cbn [bind]. rewrite Er. cbn [bind].
  unfold IpAuthHeaderSlice.next_header. rewrite Eb. discriminate.
Qed.

Theorem lax_single_never_bug bs s pos lim nh :
  bytes_ok bs -> repr bs s pos lim ->
  no_bug (LaxIpSlice.from_slice s) /\ no_bug (LaxIpv4Slice.from_slice s) /\
  no_bug (LaxIpv6Slice.from_slice s) /\ no_bug (LaxMacsecSlice.from_slice s) /\
  no_bug (UdpSlice.from_slice_lax s) /\ no_bug (LaxIpv6Exts.from_slice_lax nh s) /\
  no_bug (LaxIpv4Exts.from_slice_lax nh s).
Proof.
  intros Hok R.
  split; [now apply (nb_laxip bs s pos lim)|]. split; [now apply (nb_laxv4 bs s pos lim)|].
  split; [now apply (nb_laxv6 bs s pos lim)|]. split; [now apply (nb_laxmacsec bs s pos lim)|].
  split; [exact (nb_udp_lax s)|]. split; [now apply (nb_laxexts6 bs s pos lim)|].
  now apply (nb_laxexts4 bs s pos lim).
Qed.
