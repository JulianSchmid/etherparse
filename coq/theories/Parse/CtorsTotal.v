(* The strict single-layer constructors of Parse/Slices.v (and the three
   of Parse/Access.v: Ethernet2A.from_slice_without_fcs / _with_crc32_fcs,
   TcpHeaderSliceA.from_slice) are TOTAL on every slice value: for an arbitrary standalone slice
   (any pointer offset, any contents, any length -- accepted or rejected) the run returns
   Ok or Err, never Bug: no failing unchecked read / from_raw_parts / checked index /
   usize subtraction / unwrap, and the fuel of the extension walk is never exhausted.
   No byte-range hypothesis is needed: every length the constructors compute from the
   contents is compared with the slice length before it is used.
   Last theorem: every slice stored in a returned value is a window of the input slice. *)
From EP Require Import Base.Bytes Parse.Types Parse.Slices Parse.Repr Parse.Access Parse.AccessProofs.
From Coq Require Import ZArith Lia ZifyN ZifyBool.

Local Open Scope N_scope.

(* the totality wording of C02: the run returns, Ok or Err *)
Definition returns {A} (r : res A) : Prop := (exists v, r = Ok v) \/ (exists e, r = Err e).

Lemma nobug_returns {A} (r : res A) : nobug r -> returns r.
Proof. destruct r as [v|e|b]; intros H; [left; eauto|right; eauto|exfalso; now apply (H b)]. Qed.

Lemma returns_nobug {A} (r : res A) : returns r -> nobug r.
Proof. intros [(v & ->)|(e & ->)] b; discriminate. Qed.

Lemma nobug_Ok {A} (x : A) : nobug (Ok x). Proof. apply okr_nobug, okr_Ok. Qed.
Lemma nobug_Err {A} e : nobug (@Err A e). Proof. intros b; discriminate. Qed.
Lemma nobug_lerr {A} a b c d : nobug (@lerr A a b c d). Proof. intros x; discriminate. Qed.

Lemma nobug_bind {A B} (r : res A) (f : A -> res B) :
  nobug r -> (forall x, r = Ok x -> nobug (f x)) -> nobug (bind r f).
Proof.
  destruct r as [x|e|b]; cbn [bind]; intros H K; [now apply K|apply nobug_Err|].
  exfalso. now apply (H b).
Qed.

Lemma nobug_map_len_err {A} f (r : res A) : nobug r -> nobug (map_len_err f r).
Proof. destruct r as [x|[e|c]|b]; cbn; intros H; try exact H; apply nobug_Err. Qed.

Lemma okr_nobug' {A} (r : res A) x : r = Ok x -> nobug r.
Proof. intros ->. apply nobug_Ok. Qed.

Lemma nobug_remap {A} (r : res A) (k : slice_error -> res A) :
  nobug r -> (forall e, nobug (k e)) ->
  nobug (match r with Ok a => Ok a | Err e => k e | Bug b => Bug b end).
Proof. destruct r as [a|e|b]; intros H K; [exact H|apply K|exact H]. Qed.

(* close a goal `nobug t` where t is built from if / Ok / Err / lerr and primitives whose
   preconditions follow (by lia) from the tests passed so far *)
Ltac nbfin := first [ apply nobug_Ok | apply nobug_Err | apply nobug_lerr ].
Ltac nbstep :=
  match goal with
  | |- nobug (if ?c then _ else _) => let C := fresh "C" in destruct c eqn:C; try (exfalso; lia)
  | |- nobug (bind (rdU ?s ?i) _) => okread (rdU_ok s i)
  | |- nobug (bind (rd16 ?s ?i) _) => okread (rd16_ok s i)
  | |- nobug (bind (subN ?a ?b) _) => rewrite (subN_ok a b) by lia; cbn [bind]
  | |- nobug (bind (subU ?s ?k ?n) _) =>
      let w := fresh "w" in let E := fresh "E" in let L := fresh "L" in let O := fresh "O" in
      destruct (subU_ok s k n) as (w & E & L & O); [lia|]; rewrite E; cbn [bind]
  | |- nobug (subU ?s ?k ?n) =>
      let w := fresh "w" in let E := fresh "E" in
      destruct (subU_ok s k n) as (w & E & _ & _); [lia|]; rewrite E
  | |- nobug (bind (Ok _) _) => cbn [bind]
  | |- nobug (bind (if ?c then _ else _) _) =>
      let C := fresh "C" in destruct c eqn:C; try (exfalso; lia)
  | |- nobug (bind (Err _) _) => cbn [bind]
  | |- nobug (bind (bind _ _) _) => apply nobug_bind; [|intros ? _]
  | |- nobug (bind (lerr _ _ _ _) _) => unfold lerr; cbn [bind]
  end.
Ltac nb := repeat nbstep; try nbfin.

Lemma nb_eth2 s : nobug (Ethernet2Slice.from_slice_without_fcs s).
Proof. unfold Ethernet2Slice.from_slice_without_fcs. nb. Qed.

Lemma nb_eth2a s : nobug (Ethernet2A.from_slice_without_fcs s).
Proof. unfold Ethernet2A.from_slice_without_fcs, Ethernet2Slice.from_slice_without_fcs. nb. Qed.

Lemma nb_eth2a_fcs s : nobug (Ethernet2A.from_slice_with_crc32_fcs s).
Proof. unfold Ethernet2A.from_slice_with_crc32_fcs. cbv zeta. nb. Qed.

Lemma nb_vlan s : nobug (SingleVlanSlice.from_slice s).
Proof. unfold SingleVlanSlice.from_slice. nb. Qed.

Lemma nb_sllh s : nobug (LinuxSll.header_from_slice s).
Proof.
  unfold LinuxSll.header_from_slice. nb.
  unfold LinuxSll.packet_type_try_from. nb.
  unfold LinuxSll.protocol_type_try_from. nb.
Qed.

Lemma nb_sll s : nobug (LinuxSll.from_slice s).
Proof.
  unfold LinuxSll.from_slice. nb.
  apply nobug_bind; [apply nb_sllh|intros; apply nobug_Ok].
Qed.

Lemma nb_macsech s : nobug (Macsec.header_from_slice s).
Proof. unfold Macsec.header_from_slice. cbv zeta. nb. Qed.

Lemma nb_macsec s : nobug (Macsec.from_slice s).
Proof.
  unfold Macsec.from_slice. apply nobug_bind; [apply nb_macsech|]. intros h Eh.
  apply macsech_wf in Eh. destruct Eh as ((t & E0 & L) & S).
  pose proof (sub_of_len _ _ S) as Lh.
  assert (L6 : 6 <= s_len h) by lia.
  apply nobug_bind.
  { unfold Macsec.expected_payload_len, Macsec.short_len, Macsec.tci_an_raw. nb. }
  intros epl _. apply nobug_bind; [destruct epl; cbv zeta; nb|].
  intros (ps, src) _. apply nobug_bind; [|intros [et|] _; apply nobug_Ok].
  unfold Macsec.next_ether_type, Macsec.tci_an_raw. rewrite E0. cbn [bind].
  change (Macsec.bit t 32) with (bitset t 32).
  destruct (N.land t 12 =? 0) eqn:C12; cbn [negb]; [|apply nobug_Ok].
  destruct (bitset t 32) eqn:C32; nb.
Qed.

Lemma nb_arp s : nobug (ArpPacketSlice.from_slice s).
Proof. unfold ArpPacketSlice.from_slice. cbv zeta. nb. Qed.

Lemma nb_ipv4h s : nobug (Ipv4HeaderSlice.from_slice s).
Proof. unfold Ipv4HeaderSlice.from_slice. cbv zeta. nb. Qed.

Lemma nb_ah s : nobug (IpAuthHeaderSlice.from_slice s).
Proof. unfold IpAuthHeaderSlice.from_slice. cbv zeta. nb. Qed.

Lemma nb_ipv6h s : nobug (Ipv6HeaderSlice.from_slice s).
Proof. unfold Ipv6HeaderSlice.from_slice. cbv zeta. nb. Qed.

Lemma nb_raw s : nobug (Ipv6RawExtHeaderSlice.from_slice s).
Proof.
  unfold Ipv6RawExtHeaderSlice.from_slice. destruct (s_len s <? 8) eqn:C; [nbfin|].
  destruct (rdU_ok s 1) as (b & E); [lia|]. unfold rdU in E.
  destruct (rd (snd s) 1) as [v|]; [|discriminate]. cbn [bind]. cbv zeta. nb.
Qed.

Lemma nb_frag s : nobug (Ipv6FragmentHeaderSlice.from_slice s).
Proof. unfold Ipv6FragmentHeaderSlice.from_slice. nb. Qed.

(* Ipv4Slice: the shared tail *)
Lemma nb_ipv4_finish header hp : 20 <= s_len header -> nobug (Ipv4Slice.finish header hp).
Proof.
  intros L. unfold Ipv4Slice.finish, Ipv4HeaderSlice.is_fragmenting_payload,
    Ipv4HeaderSlice.more_fragments, Ipv4HeaderSlice.fragments_offset, Ipv4HeaderSlice.protocol.
  nb.
  apply nobug_bind; [apply nobug_remap; [apply nb_ah|intros [l|c]; nbfin]|].
  intros auth Ea. apply remap_inv in Ea; [|intros [l|c]; discriminate].
  apply ah_wf in Ea. destruct Ea as ((p & E1 & P1 & La) & Sa).
  pose proof (sub_of_len _ _ Sa) as Lh.
  unfold IpAuthHeaderSlice.next_header. nb.
Qed.

Lemma nb_ipv4 s : nobug (Ipv4Slice.from_slice s).
Proof.
  unfold Ipv4Slice.from_slice. apply nobug_bind; [apply nb_ipv4h|]. intros h Eh.
  apply ipv4h_wf in Eh. destruct Eh as ((L20 & L60) & S).
  pose proof (sub_of_len _ _ S) as Lh.
  unfold Ipv4HeaderSlice.total_len. nb. apply nb_ipv4_finish. lia.
Qed.

(* Ipv6ExtensionsSlice: the walk consumes at least 8 bytes per continuing iteration, so a
   fuel above the length of the rest is never exhausted *)
Lemma nb_walk fuel start_len : forall rest nh fr,
  (N.to_nat (s_len rest) < fuel)%nat -> s_len rest <= start_len ->
  nobug (Ipv6ExtensionsSlice.walk fuel start_len rest nh fr).
Proof.
  induction fuel as [|f IH]; intros rest nh fr Hf Hs; [lia|].
  cbn [Ipv6ExtensionsSlice.walk]. nb.
  - (* destination options / routing *)
    apply nobug_bind; [apply nobug_map_len_err, nb_raw|]. intros sl Esl. apply map_len_err_inv in Esl.
    pose proof (raw_wf _ _ Esl) as ((b & _ & Lb) & S). pose proof (sub_of_len _ _ S).
    unfold Ipv6RawExtHeaderSlice.next_header. nb. apply IH; lia.
  - (* fragment *)
    apply nobug_bind; [apply nobug_map_len_err, nb_frag|]. intros sl Esl. apply map_len_err_inv in Esl.
    pose proof (frag_wf _ _ Esl) as (W & S). unfold wf_frag in W. pose proof (sub_of_len _ _ S).
    unfold Ipv6FragmentHeaderSlice.next_header, Ipv6FragmentHeaderSlice.is_fragmenting_payload,
      Ipv6FragmentHeaderSlice.more_fragments, Ipv6FragmentHeaderSlice.fragment_offset.
    nb. apply IH; lia.
  - (* authentication *)
    apply nobug_bind; [apply nobug_remap; [apply nb_ah|intros [l|c]; nbfin]|].
    intros sl Esl. apply remap_inv in Esl; [|intros [l|c]; discriminate].
    pose proof (ah_wf _ _ Esl) as ((p & _ & P1 & Lp) & S). pose proof (sub_of_len _ _ S).
    unfold IpAuthHeaderSlice.next_header. nb. apply IH; lia.
Qed.

Lemma nb_exts nh s : nobug (Ipv6ExtensionsSlice.from_slice nh s).
Proof.
  unfold Ipv6ExtensionsSlice.from_slice. apply nobug_bind.
  - destruct (IPN_HOP_BY_HOP =? nh); [|apply nobug_Ok].
    apply nobug_bind; [apply nb_raw|]. intros sl Esl.
    pose proof (raw_wf _ _ Esl) as ((b & _ & Lb) & S). pose proof (sub_of_len _ _ S).
    unfold Ipv6RawExtHeaderSlice.next_header. nb.
  - intros (rest0, nh0) Est.
    assert (L0 : s_len rest0 <= s_len s).
    { destruct (IPN_HOP_BY_HOP =? nh); [|injection Est as <- _; lia].
      binv Est sl Esl. binv Est r0 Er0. binv Est n0 En0. injection Est as <- _.
      destruct (s_len sl <=? s_len s) eqn:El; [|discriminate]. injection Er0 as <-.
      unfold s_len at 1. cbn [snd]. rewrite len_drop. unfold s_len. lia. }
    apply nobug_bind; [apply nb_walk; [rewrite s_len_length; lia|exact L0]|].
    intros ((restf, nxf), frf) Ew. destruct (walk_collect _ _ _ _ _ _ _ _ Ew) as (A1 & _). nb.
Qed.

(* Ipv6Slice: the shared tail *)
Lemma nb_ipv6_finish s header : 40 <= s_len header -> nobug (Ipv6Slice.finish s header).
Proof.
  intros L. unfold Ipv6Slice.finish, Ipv6HeaderSlice.payload_length, Ipv6HeaderSlice.next_header.
  destruct (rd16_ok header 4) as (pl & Epl); [lia|]. rewrite Epl. cbn [bind].
  apply nobug_bind; [cbv zeta; nb|]. intros (hp, src) _. nb. apply nobug_bind.
  - apply nobug_remap; [apply nb_exts|intros [l|c]; nbfin].
  - intros ((exts, pn), payload) _. apply nobug_Ok.
Qed.

Lemma nb_ipv6 s : nobug (Ipv6Slice.from_slice s).
Proof.
  unfold Ipv6Slice.from_slice. apply nobug_bind; [apply nb_ipv6h|]. intros h Eh.
  apply ipv6h_wf in Eh. destruct Eh as (W & _). unfold wf_ipv6h in W. apply nb_ipv6_finish. lia.
Qed.

Lemma nb_ip s : nobug (IpSlice.from_slice s).
Proof.
  unfold IpSlice.from_slice. cbv zeta. unfold Ipv4HeaderSlice.total_len.
  destruct (s_len s =? 0) eqn:C0; [nbfin|]. nbstep.
  pose proof (land15_le x) as L15.
  destruct (N.shiftr x 4 =? 4) eqn:C4.
  - nb. apply nobug_bind; [apply nb_ipv4_finish; lia|]. intros; apply nobug_Ok.
  - nb. apply nobug_bind; [apply nb_ipv6_finish; lia|]. intros; apply nobug_Ok.
Qed.

Lemma nb_udph s : nobug (UdpSlice.header_from_slice s).
Proof. unfold UdpSlice.header_from_slice. nb. Qed.

Lemma nb_udp s : nobug (UdpSlice.from_slice s).
Proof.
  unfold UdpSlice.from_slice. apply nobug_bind; [apply nb_udph|]. intros h Eh.
  apply udph_wf in Eh. destruct Eh as (W & _). unfold wf_udph in W. unfold UdpSlice.length. nb.
Qed.

Lemma nb_udp_lax s : nobug (UdpSlice.from_slice_lax s).
Proof.
  unfold UdpSlice.from_slice_lax. apply nobug_bind; [apply nb_udph|]. intros h Eh.
  apply udph_wf in Eh. destruct Eh as (W & _). unfold wf_udph in W. unfold UdpSlice.length. nb.
Qed.

Lemma nb_tcp s : nobug (TcpSlice.from_slice s).
Proof. unfold TcpSlice.from_slice. cbv zeta. nb. Qed.

Lemma nb_tcph s : nobug (TcpHeaderSliceA.from_slice s).
Proof. unfold TcpHeaderSliceA.from_slice. cbv zeta. nb. Qed.

Lemma nb_icmp4 s : nobug (Icmpv4Slice.from_slice s).
Proof. unfold Icmpv4Slice.from_slice. nb. Qed.

Lemma nb_icmp6 s : nobug (Icmpv6Slice.from_slice s).
Proof. unfold Icmpv6Slice.from_slice. nb. Qed.

Theorem single_layer_ctor_no_bug : forall s,
  nobug (Ethernet2A.from_slice_without_fcs s) /\ nobug (Ethernet2A.from_slice_with_crc32_fcs s) /\
  nobug (LinuxSll.header_from_slice s) /\ nobug (LinuxSll.from_slice s) /\
  nobug (SingleVlanSlice.from_slice s) /\
  nobug (Macsec.header_from_slice s) /\ nobug (Macsec.from_slice s) /\
  nobug (ArpPacketSlice.from_slice s) /\
  nobug (Ipv4HeaderSlice.from_slice s) /\ nobug (Ipv4Slice.from_slice s) /\
  nobug (Ipv6HeaderSlice.from_slice s) /\ nobug (Ipv6Slice.from_slice s) /\
  nobug (IpSlice.from_slice s) /\
  nobug (IpAuthHeaderSlice.from_slice s) /\ nobug (Ipv6RawExtHeaderSlice.from_slice s) /\
  nobug (Ipv6FragmentHeaderSlice.from_slice s) /\
  (forall nh, nobug (Ipv6ExtensionsSlice.from_slice nh s)) /\
  nobug (UdpSlice.header_from_slice s) /\ nobug (UdpSlice.from_slice s) /\
  nobug (UdpSlice.from_slice_lax s) /\
  nobug (TcpHeaderSliceA.from_slice s) /\ nobug (TcpSlice.from_slice s) /\
  nobug (Icmpv4Slice.from_slice s) /\ nobug (Icmpv6Slice.from_slice s).
Proof.
  intros s.
  repeat match goal with |- _ /\ _ => split end;
    first [ apply nb_eth2a | apply nb_eth2a_fcs | apply nb_sllh | apply nb_sll | apply nb_vlan
          | apply nb_macsech | apply nb_macsec | apply nb_arp | apply nb_ipv4h | apply nb_ipv4
          | apply nb_ipv6h | apply nb_ipv6 | apply nb_ip | apply nb_ah | apply nb_raw | apply nb_frag
          | (intros nh; apply nb_exts) | apply nb_udph | apply nb_udp | apply nb_udp_lax
          | apply nb_tcph | apply nb_tcp | apply nb_icmp4 | apply nb_icmp6 ].
Qed.

(* the totality reading (C02): each run returns Ok or Err *)
Theorem single_layer_ctor_returns : forall s,
  returns (Ethernet2A.from_slice_without_fcs s) /\ returns (Ethernet2A.from_slice_with_crc32_fcs s) /\
  returns (LinuxSll.header_from_slice s) /\ returns (LinuxSll.from_slice s) /\
  returns (SingleVlanSlice.from_slice s) /\
  returns (Macsec.header_from_slice s) /\ returns (Macsec.from_slice s) /\
  returns (ArpPacketSlice.from_slice s) /\
  returns (Ipv4HeaderSlice.from_slice s) /\ returns (Ipv4Slice.from_slice s) /\
  returns (Ipv6HeaderSlice.from_slice s) /\ returns (Ipv6Slice.from_slice s) /\
  returns (IpSlice.from_slice s) /\
  returns (IpAuthHeaderSlice.from_slice s) /\ returns (Ipv6RawExtHeaderSlice.from_slice s) /\
  returns (Ipv6FragmentHeaderSlice.from_slice s) /\
  (forall nh, returns (Ipv6ExtensionsSlice.from_slice nh s)) /\
  returns (UdpSlice.header_from_slice s) /\ returns (UdpSlice.from_slice s) /\
  returns (UdpSlice.from_slice_lax s) /\
  returns (TcpHeaderSliceA.from_slice s) /\ returns (TcpSlice.from_slice s) /\
  returns (Icmpv4Slice.from_slice s) /\ returns (Icmpv6Slice.from_slice s).
Proof.
  intros s. pose proof (single_layer_ctor_no_bug s) as H.
  repeat match type of H with _ /\ _ => let A := fresh "A" in destruct H as (A & H) end.
  repeat match goal with |- _ /\ _ => split end;
    try (apply nobug_returns; assumption).
  intros nh. apply nobug_returns. auto.
Qed.

(* every slice stored in the value a strict single-layer constructor returns is a
   from_raw_parts-window of the input slice (sub_of w s: exists k n, subU s k n = Ok w) *)
Theorem single_layer_stored_windows :
  (forall s e, Ethernet2A.from_slice_without_fcs s = Ok e \/ Ethernet2A.from_slice_with_crc32_fcs s = Ok e ->
     e2_slice e = s) /\
  (forall s h, LinuxSll.header_from_slice s = Ok h -> sub_of h s) /\
  (forall s x, LinuxSll.from_slice s = Ok x -> sub_of (fst x) s /\ snd x = s) /\
  (forall s v, SingleVlanSlice.from_slice s = Ok v -> v = s) /\
  (forall s h, Macsec.header_from_slice s = Ok h -> sub_of h s) /\
  (forall s m, Macsec.from_slice s = Ok m ->
     sub_of (ms_header m) s /\ sub_of (macsec_payload_slice m) s) /\
  (forall s a, ArpPacketSlice.from_slice s = Ok a -> sub_of a s) /\
  (forall s h, Ipv4HeaderSlice.from_slice s = Ok h -> sub_of h s) /\
  (forall s v, Ipv4Slice.from_slice s = Ok v \/ IpSlice.from_slice s = Ok (IpV4 v) ->
     sub_of (v4_header v) s /\ (forall a, v4_auth v = Some a -> sub_of a s) /\
     sub_of (ipp_slice (v4_payload v)) s /\ Forall (win_ok s) (Ipv4SliceA.windows v)) /\
  (forall s h, Ipv6HeaderSlice.from_slice s = Ok h -> sub_of h s) /\
  (forall s v, Ipv6Slice.from_slice s = Ok v \/ IpSlice.from_slice s = Ok (IpV6 v) ->
     sub_of (v6_header v) s /\ sub_of (x6_slice (v6_exts v)) s /\ sub_of (ipp_slice (v6_payload v)) s) /\
  (forall s h, IpAuthHeaderSlice.from_slice s = Ok h -> sub_of h s) /\
  (forall s h, Ipv6RawExtHeaderSlice.from_slice s = Ok h -> sub_of h s) /\
  (forall s h, Ipv6FragmentHeaderSlice.from_slice s = Ok h -> sub_of h s) /\
  (forall nh s x nx rest, Ipv6ExtensionsSlice.from_slice nh s = Ok (x, nx, rest) ->
     sub_of (x6_slice x) s /\ sub_of rest s) /\
  (forall s h, UdpSlice.header_from_slice s = Ok h -> sub_of h s) /\
  (forall s u, UdpSlice.from_slice s = Ok u \/ UdpSlice.from_slice_lax s = Ok u -> sub_of u s) /\
  (forall s h, TcpHeaderSliceA.from_slice s = Ok h -> sub_of h s) /\
  (forall s x, TcpSlice.from_slice s = Ok x -> snd x = s) /\
  (forall s v, Icmpv4Slice.from_slice s = Ok v -> v = s) /\
  (forall s v, Icmpv6Slice.from_slice s = Ok v -> v = s).
Proof.
  repeat match goal with |- _ /\ _ => split end.
  - intros s e [H|H]; [apply eth2_wf_without_fcs in H|apply eth2_wf_with_fcs in H]; tauto.
  - intros s h H. now apply sllh_wf in H.
  - intros s x H. apply sll_wf in H. tauto.
  - intros s v H. now apply vlan_wf in H.
  - intros s h H. now apply macsech_wf in H.
  - intros s m H. apply macsec_wf in H. tauto.
  - intros s a H. now apply arp_wf in H.
  - intros s h H. now apply ipv4h_wf in H.
  - intros s v H.
    assert (X : wf_ipv4 v /\ ipv4_in v s) by (destruct H as [H|H]; [now apply ipv4_wf|exact (ip_wf _ _ H)]).
    destruct X as (W & In). pose proof In as (Sh & Sa & Sp).
    split; [exact Sh|]. split; [|split; [exact Sp|now apply ipv4_windows_in]].
    intros a Ea. now rewrite Ea in Sa.
  - intros s h H. now apply ipv6h_wf in H.
  - intros s v H.
    assert (X : wf_ipv6 v /\ ipv6_in v s) by (destruct H as [H|H]; [now apply ipv6_wf|exact (ip_wf _ _ H)]).
    destruct X as (_ & X). exact X.
  - intros s h H. now apply ah_wf in H.
  - intros s h H. now apply raw_wf in H.
  - intros s h H. now apply frag_wf in H.
  - intros nh s x nx rest H. apply exts_good_from_slice in H. tauto.
  - intros s h H. now apply udph_wf in H.
  - intros s u [H|H]; [now apply udp_wf in H|now apply udp_lax_wf in H].
  - intros s h H. now apply tcph_wf in H.
  - intros s x H. now apply tcp_wf in H.
  - intros s v H. now apply icmp4_wf in H.
  - intros s v H. now apply icmp6_wf in H.
Qed.
