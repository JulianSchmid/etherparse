(* Props/C06.v -- property C06: equivalent entry points give equivalent
   answers.  Each theorem is the named lemma of the
   proof files; the Examples are test vectors checked by evaluation.

   Group 1: the whole-packet starting points of one family agree (1a: from_ethernet against
   from_ether_type, every window moved by 14; 1b: from_ether_type(IPv4 | IPv6) against from_ip).
   Group 2: the copies of the IP boundary logic agree (version-dispatching decoder against the
   version-specific ones).  Group 3: T::read over a Cursor against T::from_slice.  The heads of
   the files of Equiv/ use the same numbering.

   Models : Parse/Slices.v, Parse/Cursor.v (strict slicing), Parse/LaxSlices.v,
            Parse/HdrModel.v (the IP boundary copies live in Slices.v, LaxSlices.v, HdrModel.v;
            the `_lax` struct copies in Parse/HdrLaxModel.v and Equiv/ModelLaxIp.v),
            IoFault/Model.v (every `read` as a read program), Equiv/ModelRead.v
   Canonicalisation (Equiv/Model.v): `shift_vres k` = every window and every
   layer_start_offset moved by k, link layer set aside; `canon_vres` / `same_answer`
   = link layer aside, err::ipv4/ipv6::HeaderError read as the err::ip::HeaderError
   naming the same fact; `F11` = the decidable known class (input ends inside the
   fixed part of the IPv4 header announced by its first byte, or is empty). *)
From EP Require Import IoFault.Spec IoFault.Model.
From EP Require Import Base.Bytes Parse.Types Parse.Slices Parse.Cursor Parse.View
  Parse.HdrModel Parse.LaxSlices Equiv.Model Equiv.ModelRead Equiv.Proofs Equiv.ShiftProofs
  Equiv.ReadProofs Equiv.ReadBase Equiv.ReadSimple Equiv.ReadChain Equiv.ReadIpHeaders
  Equiv.ReadTotal Equiv.ReadAll Equiv.ReadValues Equiv.HdrShift Equiv.LaxShift.
From EP Require Import Parse.LaxCursor.
From EP Require Roundtrip.Common Roundtrip.Tcp Roundtrip.Ipv4 Roundtrip.Frag BitFields.Model Equiv.ReadValues6.

Local Open Scope N_scope.

(* ---- group 1: whole-packet starting points (strict slicing family) ---------- *)
(* Ethernet II header present: slicing from it = slicing the bytes behind it from
   its ether type, every window and error offset 14 bytes later, link layer aside.
   Equality is exact (len_source included). *)
Theorem C06_ethernet_eq_ethertype : forall bs a b,
  rd bs 12 = Some a -> rd bs 13 = Some b ->
  nolink (vres_of (SlicedPacket.from_ethernet bs)) =
  shift_vres 14 (nolink (vres_of (SlicedPacket.from_ether_type (be16 a b) (drop 14 bs)))).
Proof. exact ethernet_eq_ethertype. Qed.
Print Assumptions C06_ethernet_eq_ethertype.

(* ... and when the 14 bytes are not there *)
Theorem C06_ethernet_short : forall bs, len bs < 14 ->
  SlicedPacket.from_ethernet bs = Err (ELen (mkLenError 14 (len bs) LsSlice LyEthernet2Header 0)).
Proof. exact ethernet_short. Qed.
Print Assumptions C06_ethernet_short.

(* ether type IPv4 / IPv6 with the matching version nibble = starting at IP *)
Theorem C06_ethertype_eq_ip : forall b rest, F11 (b :: rest) = false ->
  (N.shiftr b 4 = 4 ->
   canon_vres (vres_of (SlicedPacket.from_ether_type ET_IPV4 (b :: rest))) =
   canon_vres (vres_of (SlicedPacket.from_ip (b :: rest)))) /\
  (N.shiftr b 4 = 6 ->
   canon_vres (vres_of (SlicedPacket.from_ether_type ET_IPV6 (b :: rest))) =
   canon_vres (vres_of (SlicedPacket.from_ip (b :: rest)))).
Proof. exact ethertype_eq_ip. Qed.
Print Assumptions C06_ethertype_eq_ip.

Theorem C06_ethertype_eq_ip_refuted :
  exists bs, F11 bs = true /\
    canon_vres (vres_of (SlicedPacket.from_ether_type ET_IPV4 bs)) <>
    canon_vres (vres_of (SlicedPacket.from_ip bs)).
Proof. exact ethertype_eq_ip_refuted. Qed.
Print Assumptions C06_ethertype_eq_ip_refuted.

(* the nibble contradicts the ether type (or the fixed header is cut short):
   the ether type's decoder rejects, precisely like this *)
Theorem C06_ethertype_mismatch : forall bs,
  (len bs < 20 ->
   SlicedPacket.from_ether_type ET_IPV4 bs =
   Err (ELen (mkLenError 20 (len bs) LsSlice LyIpv4Header 0))) /\
  (len bs < 40 ->
   SlicedPacket.from_ether_type ET_IPV6 bs =
   Err (ELen (mkLenError 40 (len bs) LsSlice LyIpv6Header 0))) /\
  (forall b rest, bs = b :: rest -> 20 <= len bs -> N.shiftr b 4 <> 4 ->
   SlicedPacket.from_ether_type ET_IPV4 bs = Err (EContent (CeIpv4Version (N.shiftr b 4)))) /\
  (forall b rest, bs = b :: rest -> 40 <= len bs -> N.shiftr b 4 <> 6 ->
   SlicedPacket.from_ether_type ET_IPV6 bs = Err (EContent (CeIpv6Version (N.shiftr b 4)))).
Proof. exact ethertype_mismatch. Qed.
Print Assumptions C06_ethertype_mismatch.

(* ---- group 2: the IP boundary copies ---------------------------------------- *)
(* the version-dispatching decoder = the version-specific one its first nibble
   selects; any pointer o, any non-empty byte string outside F11 *)
Theorem C06_dispatch_eq_specific : forall o b rest, F11 (b :: rest) = false ->
  same_answer (IpSlice.from_slice (o, b :: rest)) (ip_slice_specific (o, b :: rest) b).
Proof. exact ip_slice_dispatch. Qed.
Print Assumptions C06_dispatch_eq_specific.

Theorem C06_dispatch_eq_specific_refuted :
  exists bs, F11 bs = true /\
    match bs with
    | b :: _ => ~ same_answer (IpSlice.from_slice (0, bs)) (ip_slice_specific (0, bs) b)
    | [] => False
    end.
Proof. exact ip_slice_dispatch_refuted. Qed.
Print Assumptions C06_dispatch_eq_specific_refuted.

Theorem C06_dispatch_eq_specific_lax : forall o b rest, F11 (b :: rest) = false ->
  same_answer (LaxIpSlice.from_slice (o, b :: rest)) (lax_ip_specific (o, b :: rest) b).
Proof. exact lax_ip_dispatch. Qed.
Print Assumptions C06_dispatch_eq_specific_lax.

(* the struct family checks the 20 bytes before the IHL in both copies: no exclusion *)
Theorem C06_dispatch_eq_specific_headers : forall o b rest,
  same_answer (IpHeaders.from_slice (o, b :: rest)) (ip_headers_specific (o, b :: rest) b).
Proof. exact ip_headers_dispatch. Qed.
Print Assumptions C06_dispatch_eq_specific_headers.

(* ---- group 3: read vs from_slice -------------------------------------------- *)
(* C06_read_eq_slice_partial: 4 of the 17 header types, those whose reader is a
   single read_exact, as plain equality; C06_read_eq_slice below covers all 17.
   The obvious general statement,
     forall t bs, (t = HIpHeaders -> F15 bs = false) ->
       read_outcome t bs = slice_outcome t bs,
   is FALSE as it stands: see C06_read_cut_fixed_refuted,
   C06_read_announced_missing_refuted and C06_read_required_len_differs. *)
Theorem C06_read_eq_slice_partial : forall bs,
  read_outcome HEthernet2 bs = slice_outcome HEthernet2 bs /\
  read_outcome HSingleVlan bs = slice_outcome HSingleVlan bs /\
  read_outcome HUdp bs = slice_outcome HUdp bs /\
  read_outcome HIpv6Frag bs = slice_outcome HIpv6Frag bs.
Proof.
  exact (fun bs => conj (read_eq_slice_ethernet2 bs) (conj (read_eq_slice_single_vlan bs)
          (conj (read_eq_slice_udp bs) (read_eq_slice_ipv6_frag bs)))).
Qed.
Print Assumptions C06_read_eq_slice_partial.

(* known class F15: IpHeaders::read takes an IPv6 payload length of 0 literally *)
Theorem C06_read_eq_slice_ip_headers_refuted :
  exists bs, F15 bs = true /\ read_outcome HIpHeaders bs <> slice_outcome HIpHeaders bs.
Proof. exact read_eq_slice_ip_headers_refuted. Qed.
Print Assumptions C06_read_eq_slice_ip_headers_refuted.

(* ---- non-vacuity -------------------------------------------------------------- *)
(* Ethernet / VLAN / IPv4 / UDP: accepted, and the theorem's two sides are this *)
Definition ex_pkt : bytes :=
  [1;2;3;4;5;6; 7;8;9;10;11;12; 129;0;  0;5; 8;0;
   69;0;0;32; 0;0;0;0; 64;17;0;0; 1;2;3;4; 5;6;7;8;
   0;1;0;2;0;12;0;0; 170;187;204;221].
Example C06_ex_eth :
  rd ex_pkt 12 = Some 129 /\ rd ex_pkt 13 = Some 0 /\
  nolink (vres_of (SlicedPacket.from_ethernet ex_pkt)) =
    VOk (mkVPacket None [VVlan (14, 36)]
           (Some (VIpv4 (18, 20) None (mkVIp 17 false LsIpv4HeaderTotalLen (38, 12))))
           (Some (VUdp (38, 12)))) /\
  vres_of (SlicedPacket.from_ether_type (be16 129 0) (drop 14 ex_pkt)) =
    VOk (mkVPacket (Some (VEtherPayload (mkVEp 33024 LsSlice (0, 36)))) [VVlan (0, 36)]
           (Some (VIpv4 (4, 20) None (mkVIp 17 false LsIpv4HeaderTotalLen (24, 12))))
           (Some (VUdp (24, 12)))).
Proof. vm_compute. repeat split. Qed.
(* cut inside the UDP header: the error offsets differ by exactly 14 *)
Example C06_ex_eth_cut :
  vres_of (SlicedPacket.from_ethernet (firstn 41 ex_pkt)) =
    VErr (ELen (mkLenError 32 23 LsSlice LyIpv4Packet 18)) /\
  vres_of (SlicedPacket.from_ether_type 33024 (drop 14 (firstn 41 ex_pkt))) =
    VErr (ELen (mkLenError 32 23 LsSlice LyIpv4Packet 4)).
Proof. vm_compute. repeat split. Qed.
(* an IPv4/UDP packet outside F11 with IHL 6: all three doors accept *)
Definition ex_ip : bytes :=
  [70;0;0;32; 0;0;0;0; 64;17;0;0; 1;2;3;4; 5;6;7;8; 1;1;1;1; 0;1;0;2;0;8;0;0].
Example C06_ex_ip :
  F11 ex_ip = false /\
  (exists v, IpSlice.from_slice (0, ex_ip) = Ok (IpV4 v) /\ Ipv4Slice.from_slice (0, ex_ip) = Ok v) /\
  (exists p, vres_of (SlicedPacket.from_ip ex_ip) = VOk p /\ v_transport p = Some (VUdp (24, 8))).
Proof.
  split; [reflexivity|]. split; eexists; split; vm_compute; reflexivity.
Qed.
Example C06_ex_read :
  read_outcome HEthernet2 ex_pkt = OOk 14 /\ read_outcome HEthernet2 (firstn 9 ex_pkt) = OEof /\
  read_outcome HIpHeaders ex_ip = OOk 24 /\ slice_outcome HIpHeaders ex_ip = OOk 24 /\
  F15 ex_ip = false.
Proof. vm_compute. repeat split. Qed.

(* ---- group 3, all 17 header types ---------------------------------------------- *)
(* outcome of T::read(&mut Cursor::new(bs)) (read side, IoFault/Model.v read programs:
   OOk n = Ok(header) with the Cursor advanced by n; OEof = Io(UnexpectedEof);
   OContent k = Content(k); OLen .. = Len(LenError) of the LimitedReader) against
   the outcome of T::from_slice(bs) (OOk n = header decoded from the first n bytes,
   i.e. header_len = n; OEof = Len error whose len_source is the slice itself /
   ArpAddrLengths; OContent, OLen likewise).

   same_reason (Equiv/ReadBase.v): equal outcomes, except that for a LimitedReader
   length error about a raw IPv6 extension header with fewer than 8 bytes left the
   required_len may differ (reader: what its current read_exact needs; slice
   decoder: 8) -- len, len_source, layer and layer_start_offset are equal, both
   required_len exceed len.  Neither side is ever an "impossible" outcome (OBad).

   Hypotheses: bytes are bytes; outside cut_fixed (HIpv4 / HIpv6 / HIpHeaders only:
   the data ends inside the fixed 20 / 40 bytes AND the reader has already rejected
   the version nibble / IHL it saw); for IpHeaders additionally: the slice holds the
   packet its fixed header announces (announced_missing = false: not (20 <= len <
   total_len) for IPv4, not (40 <= len < 40 + payload_length) for IPv6) and the
   input is outside the known class F15.  ICMPv4 / ICMPv6 are compared on the slice
   that ends with the header (ModelRead.ends_with_header), as the property says. *)
Theorem C06_read_eq_slice : forall t bs, bytes_ok bs -> cut_fixed t bs = false ->
  (t = HIpHeaders -> announced_missing bs = false /\ F15 bs = false) ->
  same_reason (read_outcome t bs) (slice_outcome t bs).
Proof. exact read_eq_slice_all. Qed.
Print Assumptions C06_read_eq_slice.

(* plain equality for the 15 types without LimitedReader / loop *)
Theorem C06_read_eq_slice_exact : forall t bs, bytes_ok bs -> cut_fixed t bs = false ->
  match t with HIpv6Exts _ | HIpHeaders => True | _ => read_outcome t bs = slice_outcome t bs end.
Proof. exact read_eq_slice_exact. Qed.
Print Assumptions C06_read_eq_slice_exact.

(* "... and consumes exactly the header's bytes" *)
Theorem C06_read_ok_consumes : forall t bs n, bytes_ok bs -> cut_fixed t bs = false ->
  (t = HIpHeaders -> announced_missing bs = false /\ F15 bs = false) ->
  read_outcome t bs = OOk n -> slice_outcome t bs = OOk n.
Proof. exact read_ok_consumes. Qed.
Print Assumptions C06_read_ok_consumes.

(* the exclusions are needed (witnesses), and what happens inside cut_fixed *)
Theorem C06_read_cut_fixed_refuted :
  (cut_fixed HIpv4 [48] = true /\ read_outcome HIpv4 [48] = OContent (KC CVersion) /\
   slice_outcome HIpv4 [48] = OEof) /\
  (cut_fixed HIpv6 [64] = true /\ read_outcome HIpv6 [64] = OContent (KC CVersion) /\
   slice_outcome HIpv6 [64] = OEof) /\
  (cut_fixed HIpHeaders [64] = true /\ read_outcome HIpHeaders [64] = OContent (KC CIhl) /\
   slice_outcome HIpHeaders [64] = OEof).
Proof. exact read_cut_fixed_refuted. Qed.
Print Assumptions C06_read_cut_fixed_refuted.

Theorem C06_read_cut_fixed_inside : forall bs,
  (cut_fixed HIpv4 bs = true ->
   read_outcome HIpv4 bs = OContent (KC CVersion) /\ slice_outcome HIpv4 bs = OEof) /\
  (cut_fixed HIpv6 bs = true ->
   read_outcome HIpv6 bs = OContent (KC CVersion) /\ slice_outcome HIpv6 bs = OEof).
Proof. exact (fun bs => conj (read_cut_fixed_ipv4 bs) (read_cut_fixed_ipv6 bs)). Qed.
Print Assumptions C06_read_cut_fixed_inside.

Theorem C06_read_announced_missing_refuted :
  bytes_ok missing_witness /\ cut_fixed HIpHeaders missing_witness = false /\
  F15 missing_witness = false /\ announced_missing missing_witness = true /\
  read_outcome HIpHeaders missing_witness = OOk 20 /\ slice_outcome HIpHeaders missing_witness = OEof.
Proof. exact read_announced_missing_refuted. Qed.
Print Assumptions C06_read_announced_missing_refuted.

Theorem C06_read_required_len_differs :
  read_outcome HIpHeaders req_witness = OLen 2 1 LS_IPV6_PAYLOAD L_IPV6EXT 40 /\
  slice_outcome HIpHeaders req_witness = OLen 8 1 LS_IPV6_PAYLOAD L_IPV6EXT 40.
Proof. exact read_required_len_differs. Qed.
Print Assumptions C06_read_required_len_differs.

(* non-vacuity: IPv6 + hop-by-hop + fragment + UDP, every hypothesis holds, both
   sides accept and the reader consumed 40 + 8 + 8 bytes; cut inside the second
   extension header by the payload length field: the same LimitedReader error *)
Definition ex_v6 (pl : N) : bytes :=
  [96;0;0;0;0;pl;0;64] ++ repeat 0 32 ++ [44;0;1;2;3;4;5;6; 17;0;0;0;0;0;0;1; 0;1;0;2;0;8;0;0].
Example C06_ex_read_all :
  bytes_ok (ex_v6 24) /\ cut_fixed HIpHeaders (ex_v6 24) = false /\
  announced_missing (ex_v6 24) = false /\ F15 (ex_v6 24) = false /\
  read_outcome HIpHeaders (ex_v6 24) = OOk 56 /\ slice_outcome HIpHeaders (ex_v6 24) = OOk 56 /\
  announced_missing (ex_v6 12) = false /\ F15 (ex_v6 12) = false /\
  read_outcome HIpHeaders (ex_v6 12) = OLen 8 4 LS_IPV6_PAYLOAD L_IPV6FRAG 48 /\
  slice_outcome HIpHeaders (ex_v6 12) = OLen 8 4 LS_IPV6_PAYLOAD L_IPV6FRAG 48 /\
  read_outcome (HIpv6Exts 0) (drop 40 (ex_v6 24)) = OOk 16 /\
  read_outcome HTcp (repeat 0 12 ++ [96] ++ repeat 0 11) = OOk 24 /\
  read_outcome HMacsec [0;1;0;0;0;1] = OContent (KC CMacsecShortLen).
Proof. split; [apply bytes_okb_spec; vm_compute; reflexivity|]. vm_compute. repeat split. Qed.

(* ---- group 3, header values ------------------------------------------------------ *)
(* C06_read_eq_slice compares outcomes: "decoded from the same n bytes".  For the
   header types that have a field-level decode model (C08: TcpHeader, Ipv4Header,
   Ipv6FragmentHeader -- their `read` decodes every field a second time, by hand,
   independently of XHeaderSlice::to_header) the decoded STRUCTS and the unread
   rest are equal, for every byte string (Ipv4Header / Ipv6Header: every byte string
   that holds the 20 / 40 fixed bytes -- shorter inputs are the class cut_fixed of the
   outcome-level theorem, C06_read_cut_fixed_inside); a slice Len error is the reader's
   UnexpectedEof (eof_of_len).  The other header types: "the remaining header types"
   below (all 17 have a value-level theorem; the harness `eq` flag checks the same
   per case). *)
Theorem C06_read_value_tcp : forall bs, bytes_ok bs ->
  Roundtrip.Tcp.read bs = eof_of_len (Roundtrip.Tcp.from_slice bs).
Proof. exact tcp_read_eq_from_slice. Qed.
Print Assumptions C06_read_value_tcp.

Theorem C06_read_value_ipv4 : forall bs, bytes_ok bs -> 20 <= len bs ->
  Roundtrip.Ipv4.ip4_read bs = eof_of_len (Roundtrip.Ipv4.ip4_from_slice bs).
Proof. exact ip4_read_eq_from_slice. Qed.
Print Assumptions C06_read_value_ipv4.

Theorem C06_read_value_frag : forall bs,
  Roundtrip.Frag.frag_read bs = eof_of_len (Roundtrip.Frag.frag_from_slice bs).
Proof. exact frag_read_eq_from_slice. Qed.
Print Assumptions C06_read_value_frag.

(* Ipv6Header: the field-level decode models of C15 (BitFields/Model.v) *)
Theorem C06_read_value_ipv6 : forall bs, bytes_ok bs -> 40 <= len bs ->
  BitFields.Model.Ipv6Header_read bs =
  Equiv.ReadValues6.eof_of_len6 (BitFields.Model.Ipv6Header_from_slice bs).
Proof. exact Equiv.ReadValues6.ip6_read_eq_from_slice. Qed.
Print Assumptions C06_read_value_ipv6.

Example C06_ex_read_value6 :
  exists h, BitFields.Model.Ipv6Header_read ([105;18;52;86;0;8;17;64] ++ repeat 1 16 ++ repeat 2 16 ++ [9]) =
            BitFields.Model.Val h /\ BitFields.Model.v6_traffic_class h = 145 /\
            BitFields.Model.v6_flow_label h = 144470.
Proof. eexists. split; [vm_compute; reflexivity|]. vm_compute. repeat split. Qed.

Example C06_ex_read_value :
  (exists h, Roundtrip.Tcp.read (repeat 0 12 ++ [96] ++ repeat 0 11 ++ [7]) = Roundtrip.Common.Ok (h, [7]) /\
             Roundtrip.Tcp.o_len (Roundtrip.Tcp.options h) = 4) /\
  (exists h, Roundtrip.Ipv4.ip4_read ([70] ++ repeat 0 23 ++ [9]) = Roundtrip.Common.Ok (h, [9])) /\
  Roundtrip.Tcp.from_slice (repeat 0 12 ++ [96] ++ repeat 0 9) = Roundtrip.Common.Err Roundtrip.Common.ELen /\
  Roundtrip.Tcp.read (repeat 0 12 ++ [96] ++ repeat 0 9) = Roundtrip.Common.Err Roundtrip.Common.EIo.
Proof.
  split; [eexists; split; vm_compute; reflexivity|].
  split; [eexists; vm_compute; reflexivity|]. vm_compute. repeat split.
Qed.

(* ---- group 1, struct family (PacketHeaders) --------------------------------------- *)
(* Ethernet II header present: PacketHeaders::from_ethernet_slice = from_ether_type on
   the bytes behind it, as VALUES of the model (a decoded header is the sub-slice it
   was decoded from): every header and the payload 14 bytes later (sh_* 14), the
   layer_start_offset of a length error 14 later, everything else -- protocol
   numbers, length sources, content errors, Bug sites -- equal; the decoded Ethernet
   II header in front.  No bytes_ok needed. *)
Theorem C06_headers_ethernet_eq_ethertype : forall bs a b,
  rd bs 12 = Some a -> rd bs 13 = Some b ->
  PacketHeaders.from_ethernet_slice bs =
  match PacketHeaders.from_ether_type (be16 a b) (drop 14 bs) with
  | Ok r => Ok (mkH (Some (0, take 14 bs)) (map (sh_hx 14) (h_exts r)) (option_map (sh_hnet 14) (h_net r))
                    (option_map (sh_htr 14) (h_transport r)) (sh_hpl 14 (h_payload r)))
  | Err (ELen e) => Err (ELen (le_add_offset e 14))
  | r => r
  end.
Proof. exact headers_ethernet_eq_ethertype. Qed.
Print Assumptions C06_headers_ethernet_eq_ethertype.

Theorem C06_headers_ethernet_short : forall bs, len bs < 14 ->
  PacketHeaders.from_ethernet_slice bs =
  Err (ELen (mkLenError 14 (len bs) LsSlice LyEthernet2Header 0)).
Proof. exact headers_ethernet_short. Qed.
Print Assumptions C06_headers_ethernet_short.

(* pointer-shift equivariance of from_ether_type itself: any k, any ether type *)
Theorem C06_headers_ethertype_shift : forall k et s,
  PacketHeaders.from_ether_type_slice et (sh k s) = rmap (sh_hp k) (PacketHeaders.from_ether_type_slice et s).
Proof. exact from_ether_type_slice_sh. Qed.
Print Assumptions C06_headers_ethertype_shift.

(* ether type IPv4 / IPv6 with the matching nibble = starting at IP; NO exclusion:
   F11 does not reach this family (both struct copies check 20 bytes before the IHL) *)
Theorem C06_headers_ethertype_eq_ip : forall b rest,
  (N.shiftr b 4 = 4 ->
   same_answer (PacketHeaders.from_ip_slice (b :: rest)) (PacketHeaders.from_ether_type ET_IPV4 (b :: rest))) /\
  (N.shiftr b 4 = 6 ->
   same_answer (PacketHeaders.from_ip_slice (b :: rest)) (PacketHeaders.from_ether_type ET_IPV6 (b :: rest))).
Proof. exact headers_ethertype_eq_ip. Qed.
Print Assumptions C06_headers_ethertype_eq_ip.

Example C06_ex_headers :
  (exists r, PacketHeaders.from_ethernet_slice ex_pkt = Ok r /\
             h_link r = Some (0, firstn 14 ex_pkt) /\
             h_transport r = Some (HtUdp (38, firstn 8 (skipn 38 ex_pkt)))) /\
  (exists r, PacketHeaders.from_ether_type 33024 (drop 14 ex_pkt) = Ok r /\
             h_transport r = Some (HtUdp (24, firstn 8 (skipn 38 ex_pkt)))) /\
  PacketHeaders.from_ethernet_slice (firstn 41 ex_pkt) =
    Err (ELen (mkLenError 32 23 LsSlice LyIpv4Packet 18)) /\
  PacketHeaders.from_ether_type 33024 (drop 14 (firstn 41 ex_pkt)) =
    Err (ELen (mkLenError 32 23 LsSlice LyIpv4Packet 4)) /\
  (exists r, PacketHeaders.from_ip_slice ex_ip = Ok r /\ PacketHeaders.from_ether_type ET_IPV4 ex_ip = Ok r).
Proof.
  (* evaluate before `split`: on `big = Ok ?r`, `split` or `reflexivity` alone compares by lazy
     conversion, which is slow *)
  split; [eexists; split; [vm_compute; reflexivity|]; vm_compute; repeat split|].
  split; [eexists; split; vm_compute; reflexivity|].
  split; [vm_compute; reflexivity|]. split; [vm_compute; reflexivity|].
  eexists; split; vm_compute; reflexivity.
Qed.

(* ---- group 1, lax slicing family (LaxSlicedPacket) --------------------------------- *)
(* lrrel k (Equiv/LaxShift.v): both Ok with link extensions, net and transport
   slices k bytes later and the stop error equal except for its layer_start_offset,
   k later (layer tag, required_len, len, len_source equal); link layer aside.
   (Err/Err with equal errors and Bug/Bug cover outcomes neither side has once the
   14 Ethernet bytes are present.) *)
Theorem C06_lax_ethernet_eq_ethertype : forall bs a b,
  rd bs 12 = Some a -> rd bs 13 = Some b ->
  lrrel 14 (LaxSlicedPacket.from_ethernet bs) (LaxSlicedPacket.from_ether_type (be16 a b) (drop 14 bs)).
Proof. exact lax_ethernet_eq_ethertype. Qed.
Print Assumptions C06_lax_ethernet_eq_ethertype.

Theorem C06_lax_ethernet_short : forall bs, len bs < 14 ->
  LaxSlicedPacket.from_ethernet bs = Err (ELen (mkLenError 14 (len bs) LsSlice LyEthernet2Header 0)).
Proof. exact lax_ethernet_short. Qed.
Print Assumptions C06_lax_ethernet_short.

(* ether type IPv4 or IPv6 (whatever the version nibble: F10) = from_ip repackaged:
   the ether payload recorded as link layer, and the first header's error -- which
   from_ip returns -- kept as stop error of layer IpHeader.  No exclusion. *)
Theorem C06_lax_ethertype_eq_ip : forall et bs, et = ET_IPV4 \/ et = ET_IPV6 ->
  LaxSlicedPacket.from_ether_type et bs = lax_ip_as_ether_type et bs (LaxSlicedPacket.from_ip bs).
Proof. exact lax_ethertype_eq_ip. Qed.
Print Assumptions C06_lax_ethertype_eq_ip.

Example C06_ex_lax :
  (exists p q, LaxSlicedPacket.from_ethernet (firstn 41 ex_pkt) = Ok p /\
     LaxSlicedPacket.from_ether_type 33024 (drop 14 (firstn 41 ex_pkt)) = Ok q /\
     lsp_stop_err p = Some (ELen (mkLenError 8 3 LsSlice LyUdpHeader 38), LyUdpHeader) /\
     lsp_stop_err q = Some (ELen (mkLenError 8 3 LsSlice LyUdpHeader 24), LyUdpHeader)) /\
  LaxSlicedPacket.from_ip [69] = Err (ELen (mkLenError 20 1 LsSlice LyIpv4Header 0)) /\
  (exists q, LaxSlicedPacket.from_ether_type ET_IPV4 [69] = Ok q /\
     lsp_stop_err q = Some (ELen (mkLenError 20 1 LsSlice LyIpv4Header 0), LyIpHeader)).
Proof.
  split.
  { do 2 eexists. split; [vm_compute; reflexivity|]. split; [vm_compute; reflexivity|]. vm_compute. repeat split. }
  split; [vm_compute; reflexivity|]. eexists; split; vm_compute; reflexivity.
Qed.

(* ==== LaxPacketHeaders family, the _lax struct copies of the IP
   boundary, from_linux_sll as a starting point ======================================= *)
From EP Require Import Parse.HdrLaxModel Equiv.HdrLaxShift Equiv.SllStart Equiv.ModelLaxIp Equiv.LaxIpCopies.
From EP Require Parse.LaxView Parse.HdrView Parse.HdrLaxCut Parse.HdrLaxProofs2.

(* ---- group 1, lax struct family (LaxPacketHeaders) ---------------------------------- *)
(* Ethernet II header present: LaxPacketHeaders::from_ethernet = from_ether_type on the
   bytes behind it, as VALUES of the model (Parse/HdrLaxModel.v; a decoded header is the
   sub-slice it was decoded from).  lh_behind 14 link r (Equiv/HdrLaxShift.v) = r with
   every decoded header (link extensions, net, transport) and the payload slice 14 bytes
   later, the layer_start_offset of a Len stop error 14 later -- whatever its layer:
   VlanHeader, MacsecHeader, IpHeader, Ipv4Header, Ipv6Header, IpAuthHeader, the IPv6
   extension layers, Arp, Icmpv4, Icmpv6, UdpHeader, TcpHeader -- and required_len, len,
   len_source, layer tag, content stop errors, incomplete flags, protocol numbers all
   equal; the decoded Ethernet II header as link.  Exact equality, every byte string. *)
Theorem C06_laxheaders_ethernet_eq_ethertype : forall bs a b,
  rd bs 12 = Some a -> rd bs 13 = Some b ->
  LaxPacketHeaders.from_ethernet bs =
  lh_behind 14 (HlEthernet2 (0, take 14 bs)) (LaxPacketHeaders.from_ether_type (be16 a b) (drop 14 bs)).
Proof. exact laxheaders_ethernet_eq_ethertype. Qed.
Print Assumptions C06_laxheaders_ethernet_eq_ethertype.

Theorem C06_laxheaders_ethernet_short : forall bs, len bs < 14 ->
  LaxPacketHeaders.from_ethernet bs = Err (ELen (mkLenError 14 (len bs) LsSlice LyEthernet2Header 0)).
Proof. exact laxheaders_ethernet_short. Qed.
Print Assumptions C06_laxheaders_ethernet_short.

(* pointer-shift equivariance of from_ether_type itself: any k, any ether type.  sh_lh k
   moves every decoded header and the payload slice; the stop error is untouched (its
   offsets count from the start of the slice the function was given) *)
Theorem C06_laxheaders_ethertype_shift : forall k et s,
  LaxPacketHeaders.from_ether_type_slice et (sh k s) =
  rmap (sh_lh k) (LaxPacketHeaders.from_ether_type_slice et s).
Proof. exact lh_from_ether_type_slice_sh. Qed.
Print Assumptions C06_laxheaders_ethertype_shift.

(* ether type IPv4 or IPv6 (whatever the version nibble: F10) = from_ip, except that the
   first header's error -- which from_ip RETURNS -- is kept as stop error of layer
   IpHeader beside the untouched start value (payload = the ether payload).  Exact
   equality, no exclusion (F11 does not reach this pair: both sides call the same
   IpHeaders::from_slice_lax). *)
Theorem C06_laxheaders_ethertype_eq_ip : forall et bs, et = ET_IPV4 \/ et = ET_IPV6 ->
  LaxPacketHeaders.from_ether_type et bs = lh_ip_as_ether_type et bs (LaxPacketHeaders.from_ip bs).
Proof. exact laxheaders_ethertype_eq_ip. Qed.
Print Assumptions C06_laxheaders_ethertype_eq_ip.

Example C06_ex_laxheaders :
  match LaxPacketHeaders.from_ethernet (firstn 41 ex_pkt),
        LaxPacketHeaders.from_ether_type 33024 (drop 14 (firstn 41 ex_pkt)) with
  | Ok p, Ok q =>
     lh_exts p = [HxVlan (14, [0; 5; 8; 0])] /\ lh_exts q = [HxVlan (0, [0; 5; 8; 0])] /\
     lh_stop p = Some (ELen (mkLenError 8 3 LsSlice LyUdpHeader 38), LyUdpHeader) /\
     lh_stop q = Some (ELen (mkLenError 8 3 LsSlice LyUdpHeader 24), LyUdpHeader)
  | _, _ => False
  end /\
  LaxPacketHeaders.from_ip [69] = Err (ELen (mkLenError 20 1 LsSlice LyIpv4Header 0)) /\
  LaxPacketHeaders.from_ether_type ET_IPV4 [69] =
    Ok (mkLH None [] None None (LHpEther (mkLaxEp false 2048 LsSlice (0, [69])))
             (Some (ELen (mkLenError 20 1 LsSlice LyIpv4Header 0), LyIpHeader))) /\
  match LaxPacketHeaders.from_ip ex_ip, LaxPacketHeaders.from_ether_type ET_IPV4 ex_ip with
  | Ok p, Ok q => p = q /\ lh_transport q = Some (HtUdp (24, [0; 1; 0; 2; 0; 8; 0; 0]))
  | _, _ => False
  end.
Proof. vm_compute. repeat split; reflexivity. Qed.

(* ---- group 2, the lax struct trio ----------------------------------------------------- *)
(* IpHeaders::from_slice_lax = the copy its first nibble selects (Equiv/ModelLaxIp.v:
   from_ipv4_slice_lax with its bare ip_auth stop error tagged IpAuthHeader,
   from_ipv6_slice_lax as is; anything else: UnsupportedIpVersion).  PLAIN equality --
   header, payload slice, incomplete flag, length source, stop error, first-header error
   -- for every pointer and every non-empty byte string; no F11-like exclusion (the
   dispatching copy checks the 20 fixed bytes before the IHL, like Ipv4Header::from_slice). *)
Theorem C06_dispatch_eq_specific_headers_lax : forall o b rest,
  LaxIpHeaders.from_slice_lax (o, b :: rest) = lax_ip_headers_specific (o, b :: rest) b.
Proof. exact lax_ip_headers_dispatch. Qed.
Print Assumptions C06_dispatch_eq_specific_headers_lax.

(* the lax boundary, slice family vs struct family: C04's theorem (Parse/HdrLaxProofs2.v
   lax_ip_agree = C04_lax_ip_headers_agree_cut), cited here because it is the second half
   of "the twelve copies agree": IpHeaders::from_slice_lax against LaxIpSlice::from_slice
   cut at the first refilled IPv6 extension header (C04's documented exception) -- same
   payload descriptor, the struct is to_header() of the slices, same stop error, same
   first-header error; outside the F11 class (nibble 4 and fewer than 20 bytes). *)
Theorem C06_lax_ip_boundary_slice_eq_struct : forall s, bytes_ok (snd s) ->
  (forall b0, rd (snd s) 0 = Some b0 -> N.shiftr b0 4 = 4 -> 20 <= s_len s) ->
  Parse.HdrLaxProofs2.lipd_rel s (LaxIpHeaders.from_slice_lax s) (Parse.HdrLaxCut.LaxCut.ip_from_slice true s).
Proof. exact Parse.HdrLaxProofs2.lax_ip_agree. Qed.
Print Assumptions C06_lax_ip_boundary_slice_eq_struct.

(* IPv4, total length 44 announced, 36 bytes present, AH cut short: all copies say
   incomplete / Slice / stop error Len(24, 16, Slice, IpAuthHeader, 20);
   total_len = header_len: empty payload, source Ipv4HeaderTotalLen *)
Definition ex_ip4_ah : bytes :=
  [69;0;0;44; 0;0;0;0; 64;51;0;0; 1;2;3;4; 5;6;7;8;  17;4;0;0;0;0;0;1;0;0;0;2; 1;1;1;1].
Example C06_ex_lax_copies :
  match LaxIpHeaders.from_slice_lax (0, ex_ip4_ah), LaxIpHeadersSpecific.from_ipv4_slice_lax (0, ex_ip4_ah) with
  | Ok (h, p, st), Ok (h', p', st') =>
      h = h' /\ p = p' /\ lipp_incomplete p = true /\ lipp_src p = LsSlice /\
      st = Some (ELen (mkLenError 24 16 LsSlice LyIpAuthHeader 20), LyIpAuthHeader) /\
      st' = Some (ELen (mkLenError 24 16 LsSlice LyIpAuthHeader 20))
  | _, _ => False
  end /\
  match LaxIpHeadersSpecific.from_ipv4_slice_lax (0, [69;0;0;20; 0;0;0;0; 64;17;0;0; 1;2;3;4; 5;6;7;8; 9;9]) with
  | Ok (_, p, st) => p = mkLaxIpp false 17 false LsIpv4HeaderTotalLen (20, []) /\ st = None
  | _ => False
  end /\
  LaxIpHeadersSpecific.from_ipv4_slice_lax (0, [96]) = Err (ELen (mkLenError 20 1 LsSlice LyIpv4Header 0)) /\
  LaxIpHeaders.from_slice_lax (0, [96]) = Err (ELen (mkLenError 40 1 LsSlice LyIpv6Header 0)).
Proof. vm_compute. repeat split; reflexivity. Qed.

(* ---- group 1, Linux SLL header as starting point ---------------------------------------- *)
(* sll_head bs (Equiv/SllStart.v) reads the first 16 bytes: fewer than 16 (SllShort);
   packet type > 7 or unsupported ARP hardware id (SllReject, with the content error);
   valid with a protocol type that is not an ether type -- netlink, GRE, ignored, Linux
   non-standard ether type -- (SllOther); valid with ether type et (SllEther et).
   SlicedPacket::from_linux_sll: in the last case = from_ether_type(et) on the bytes behind
   the header, every window and every error offset 16 later, link layer aside (same
   canonicalisation as C06_ethernet_eq_ethertype); otherwise the header's length error /
   content error / a packet with only the link layer. *)
Theorem C06_sll_start_sliced : forall bs,
  match sll_head bs with
  | SllShort =>
      SlicedPacket.from_linux_sll bs = Err (ELen (mkLenError 16 (len bs) LsSlice LyLinuxSllHeader 0))
  | SllReject c => SlicedPacket.from_linux_sll bs = Err (EContent c)
  | SllOther pt =>
      SlicedPacket.from_linux_sll bs =
      Ok (mkSliced (Some (LkLinuxSll (0, take 16 bs) (0, bs))) [] None None)
  | SllEther et =>
      nolink (vres_of (SlicedPacket.from_linux_sll bs)) =
      shift_vres 16 (nolink (vres_of (SlicedPacket.from_ether_type et (drop 16 bs))))
  end.
Proof. exact sll_start_sliced. Qed.
Print Assumptions C06_sll_start_sliced.

(* LaxPacketHeaders::from_linux_sll: = lh_behind 16 of from_ether_type(et) behind the
   header (as C06_laxheaders_ethernet_eq_ethertype, with 16); not an ether type: link +
   the LinuxSll payload (protocol type, bytes behind the header), nothing else *)
Theorem C06_sll_start_laxheaders : forall bs,
  match sll_head bs with
  | SllShort =>
      LaxPacketHeaders.from_linux_sll bs = Err (ELen (mkLenError 16 (len bs) LsSlice LyLinuxSllHeader 0))
  | SllReject c => LaxPacketHeaders.from_linux_sll bs = Err (EContent c)
  | SllOther pt =>
      LaxPacketHeaders.from_linux_sll bs =
      Ok (mkLH (Some (HlLinuxSll (0, take 16 bs))) [] None None (LHpLinuxSll pt (16, drop 16 bs)) None)
  | SllEther et =>
      LaxPacketHeaders.from_linux_sll bs =
      lh_behind 16 (HlLinuxSll (0, take 16 bs)) (LaxPacketHeaders.from_ether_type et (drop 16 bs))
  end.
Proof. exact sll_start_laxheaders. Qed.
Print Assumptions C06_sll_start_laxheaders.

(* SLL / IPv4 / UDP cut inside the UDP header; all four classes occur *)
Definition ex_sll : bytes := [0;0; 0;1; 0;6; 1;2;3;4;5;6;0;0; 8;0] ++ drop 18 ex_pkt.
Example C06_ex_sll :
  sll_head ex_sll = SllEther 2048 /\
  vres_of (SlicedPacket.from_linux_sll (firstn 39 ex_sll)) =
    VErr (ELen (mkLenError 32 23 LsSlice LyIpv4Packet 16)) /\
  vres_of (SlicedPacket.from_ether_type 2048 (drop 16 (firstn 39 ex_sll))) =
    VErr (ELen (mkLenError 32 23 LsSlice LyIpv4Packet 0)) /\
  match LaxPacketHeaders.from_linux_sll (firstn 39 ex_sll),
        LaxPacketHeaders.from_ether_type 2048 (drop 16 (firstn 39 ex_sll)) with
  | Ok p, Ok q =>
     lh_stop p = Some (ELen (mkLenError 8 3 LsSlice LyUdpHeader 36), LyUdpHeader) /\
     lh_stop q = Some (ELen (mkLenError 8 3 LsSlice LyUdpHeader 20), LyUdpHeader)
  | _, _ => False
  end /\
  match vres_of (SlicedPacket.from_linux_sll ex_sll) with
  | VOk p => v_transport p = Some (VUdp (36, 12))
  | _ => False
  end /\
  sll_head [0;0; 3;56; 0;6; 1;2;3;4;5;6;0;0; 0;16; 1;2;3] = SllOther (SllNetlink 16) /\
  sll_head [0;9; 0;1; 0;6; 1;2;3;4;5;6;0;0; 8;0] = SllReject (CeLinuxSllPacketType 9) /\
  sll_head [0;0; 0;2; 0;6; 1;2;3;4;5;6;0;0; 8;0] = SllReject (CeLinuxSllArpHardwareId 2) /\
  sll_head [0;0; 0;1; 0;6; 1;2;3;4;5;6;0;0; 0;4] = SllOther (SllNonstandard 4) /\
  sll_head [0;0; 0;1] = SllShort.
Proof. vm_compute. repeat split; reflexivity. Qed.

From EP Require Roundtrip.Eth Roundtrip.Vlan Roundtrip.Sll Roundtrip.Macsec Roundtrip.Arp Roundtrip.Udp Roundtrip.RawExt
  Roundtrip.Auth Roundtrip.Exts4 Roundtrip.Icmp4 Roundtrip.Icmp6 Equiv.ReadValuesLink Equiv.ReadValuesNet
  ExtChain.Model ExtChain.ReadModel ExtChain.ReadProofs.

(* ---- group 3, header values: the remaining header types ----------------------------------- *)
(* As C06_read_value_tcp / _ipv4 / _frag / _ipv6 above, for the header types whose field-level
   decode models are those of C08 (Roundtrip/{Eth,Vlan,Sll,Macsec,Arp,Auth,RawExt,Udp,Icmp4,
   Icmp6,Exts4}.v: `X_read` = T::read over a byte list, `X_from_slice` = T::from_slice; proofs:
   Equiv/ReadValuesLink.v, Equiv/ReadValuesNet.v): the decoded STRUCT (every field), the unread
   rest and the error of `read` (kind and, for content errors, the code with the offending value)
   are those of `from_slice`, for every byte string (Ipv6Extensions and IpHeaders further below:
   whenever from_slice accepts; their rejections are compared at outcome level); a slice
   Len error is the reader's UnexpectedEof (eof_of_len).  bytes_ok where a length octet >= 256
   would send the reader model into a slice-index panic a real u8 cannot reach. *)
Theorem C06_read_value_ethernet2 : forall bs,
  Roundtrip.Eth.eth_read bs = eof_of_len (Roundtrip.Eth.eth_from_slice bs).
Proof. exact Equiv.ReadValuesLink.eth_read_eq_from_slice. Qed.
Print Assumptions C06_read_value_ethernet2.

Theorem C06_read_value_single_vlan : forall bs,
  Roundtrip.Vlan.vl_read bs = eof_of_len (Roundtrip.Vlan.vl_from_slice bs).
Proof. exact Equiv.ReadValuesLink.vl_read_eq_from_slice. Qed.
Print Assumptions C06_read_value_single_vlan.

(* LinuxSllHeader::read decodes through from_bytes, from_slice through the slice accessors *)
Theorem C06_read_value_linux_sll : forall bs,
  Roundtrip.Sll.sll_read bs = eof_of_len (Roundtrip.Sll.sll_from_slice bs).
Proof. exact Equiv.ReadValuesLink.sll_read_eq_from_slice. Qed.
Print Assumptions C06_read_value_linux_sll.

(* MacsecHeader::from_slice / ArpPacket::from_slice return the header only: the reader's rest
   is compared with the bytes behind header_len() / packet_len() *)
Theorem C06_read_value_macsec : forall bs,
  Roundtrip.Macsec.mac_read bs =
  eof_of_len (match Roundtrip.Macsec.mac_from_slice bs with
              | Roundtrip.Common.Ok h => Roundtrip.Common.Ok (h, drop (Roundtrip.Macsec.mac_header_len h) bs)
              | Roundtrip.Common.Err e => Roundtrip.Common.Err e
              end).
Proof. exact Equiv.ReadValuesLink.mac_read_eq_from_slice. Qed.
Print Assumptions C06_read_value_macsec.

Theorem C06_read_value_arp : forall bs, bytes_ok bs ->
  Roundtrip.Arp.arp_read bs =
  eof_of_len (match Roundtrip.Arp.arp_from_slice bs with
              | Roundtrip.Common.Ok h => Roundtrip.Common.Ok (h, drop (Roundtrip.Arp.arp_packet_len h) bs)
              | Roundtrip.Common.Err e => Roundtrip.Common.Err e
              end).
Proof. exact Equiv.ReadValuesLink.arp_read_eq_from_slice. Qed.
Print Assumptions C06_read_value_arp.

Theorem C06_read_value_udp : forall bs,
  Roundtrip.Udp.udp_read bs = eof_of_len (Roundtrip.Udp.udp_from_slice bs).
Proof. exact Equiv.ReadValuesNet.udp_read_eq_from_slice. Qed.
Print Assumptions C06_read_value_udp.

Theorem C06_read_value_ipv6_raw_ext : forall bs, bytes_ok bs ->
  Roundtrip.RawExt.rx_read bs = eof_of_len (Roundtrip.RawExt.rx_from_slice bs).
Proof. exact Equiv.ReadValuesNet.rx_read_eq_from_slice. Qed.
Print Assumptions C06_read_value_ipv6_raw_ext.

Theorem C06_read_value_ip_auth : forall bs, bytes_ok bs ->
  Roundtrip.Auth.ah_read bs = eof_of_len (Roundtrip.Auth.ah_from_slice bs).
Proof. exact Equiv.ReadValuesNet.ah_read_eq_from_slice. Qed.
Print Assumptions C06_read_value_ip_auth.

Theorem C06_read_value_ipv4_exts : forall start bs, bytes_ok bs ->
  Roundtrip.Exts4.x4_read bs start = eof_of_len (Roundtrip.Exts4.x4_from_slice start bs).
Proof. exact Equiv.ReadValuesNet.x4_read_eq_from_slice. Qed.
Print Assumptions C06_read_value_ipv4_exts.

(* ICMPv4: Icmpv4Slice::from_slice wants a timestamp / timestamp reply message (type 13 | 14,
   code 0) to END the slice (exactly 20 bytes); read takes 20 bytes and leaves the rest.  As the
   property says, this rule is compared on the slice that ends with the header: outside
   icmp4_ts_trailing (timestamp message followed by more bytes) plain equality; inside, read
   = from_slice of the first 20 bytes; the witness shows the exclusion is needed. *)
Theorem C06_read_value_icmpv4 : forall bs,
  (Equiv.ReadValuesNet.icmp4_ts_trailing bs = false ->
   Roundtrip.Icmp4.icmp4_read bs = eof_of_len (Roundtrip.Icmp4.icmp4_from_slice bs)) /\
  (Equiv.ReadValuesNet.icmp4_is_ts bs = true -> 20 <= len bs ->
   Roundtrip.Icmp4.icmp4_read bs =
   match Roundtrip.Icmp4.icmp4_from_slice (take 20 bs) with
   | Roundtrip.Common.Ok (h, _) => Roundtrip.Common.Ok (h, drop 20 bs)
   | Roundtrip.Common.Err e => Roundtrip.Common.Err e
   end).
Proof.
  exact (fun bs => conj (Equiv.ReadValuesNet.icmp4_read_eq_from_slice bs)
                        (Equiv.ReadValuesNet.icmp4_read_eq_from_slice_ts bs)).
Qed.
Print Assumptions C06_read_value_icmpv4.

Theorem C06_read_value_icmpv4_ts_refuted :
  exists bs, Equiv.ReadValuesNet.icmp4_ts_trailing bs = true /\
    Roundtrip.Icmp4.icmp4_from_slice bs = Roundtrip.Common.Err Roundtrip.Common.ELen /\
    exists h, Roundtrip.Icmp4.icmp4_read bs = Roundtrip.Common.Ok (h, [99]).
Proof.
  exists [13;0; 1;2; 0;7; 0;9; 0;0;0;1; 0;0;0;2; 0;0;0;3; 99].
  split; [vm_compute; reflexivity|]. split; [vm_compute; reflexivity|].
  eexists. vm_compute. reflexivity.
Qed.
Print Assumptions C06_read_value_icmpv4_ts_refuted.

(* ICMPv6: Icmpv6Slice::from_slice rejects slices longer than u32::MAX, read has no such limit
   (lengths are unbounded in the model): equality up to that length, and for every byte string
   read = from_slice of the first 8 bytes *)
Theorem C06_read_value_icmpv6 : forall bs,
  (len bs <= 4294967295 ->
   Roundtrip.Icmp6.icmp6_read bs = eof_of_len (Roundtrip.Icmp6.icmp6_from_slice bs)) /\
  Roundtrip.Icmp6.icmp6_read bs =
  eof_of_len (match Roundtrip.Icmp6.icmp6_from_slice (take 8 bs) with
              | Roundtrip.Common.Ok (h, _) => Roundtrip.Common.Ok (h, drop 8 bs)
              | Roundtrip.Common.Err e => Roundtrip.Common.Err e
              end).
Proof.
  exact (fun bs => conj (Equiv.ReadValuesNet.icmp6_read_eq_from_slice bs)
                        (Equiv.ReadValuesNet.icmp6_read_eq_from_slice_prefix bs)).
Qed.
Print Assumptions C06_read_value_icmpv6.

(* Ipv6Extensions (and Ipv4Extensions a second time, on C12's own model): C12's value-carrying
   reader model (ExtChain/ReadModel.v, reader = C16's) -- cited: whenever from_slice accepts,
   `read` over a Cursor returns the same struct and next header number, has consumed exactly the
   bytes from_slice consumed, and what is left to read is from_slice's rest
   (= C12_read_cursor; the rejecting side is C06_read_eq_slice above) *)
Theorem C06_read_value_ipv6_exts : forall first bs e n rest, bytes_ok bs ->
  ExtChain.Model.from_slice first bs = ExtChain.Model.Ok (e, n, rest) ->
  exists s', ExtChain.ReadModel.read6 false first (IoFault.Model.mk_rstate (ExtChain.ReadModel.cursor bs) None) =
               (IoFault.Model.QOk (e, n), IoFault.Model.mk_rstate s' None) /\
             IoFault.Spec.src_data s' = rest /\ IoFault.Spec.src_pulled s' + len rest = len bs.
Proof. exact ExtChain.ReadProofs.read6_cursor. Qed.
Print Assumptions C06_read_value_ipv6_exts.

Example C06_ex_read_value_more :
  (exists h, Roundtrip.Sll.sll_read [0;4; 0;1; 0;6; 1;2;3;4;5;6;0;0; 8;0; 7] = Roundtrip.Common.Ok (h, [7]) /\
             Roundtrip.Sll.sll_from_slice [0;4; 0;1; 0;6; 1;2;3;4;5;6;0;0; 8;0; 7] = Roundtrip.Common.Ok (h, [7]) /\
             Roundtrip.Sll.sll_packet_type h = 4) /\
  (exists h, Roundtrip.Udp.udp_read [0;1; 0;2; 0;9; 3;4; 5] = Roundtrip.Common.Ok (h, [5]) /\
             Roundtrip.Udp.udp_length h = 9) /\
  Roundtrip.Eth.eth_read [1;2;3] = Roundtrip.Common.Err Roundtrip.Common.EIo /\
  Roundtrip.Eth.eth_from_slice [1;2;3] = Roundtrip.Common.Err Roundtrip.Common.ELen /\
  (exists h, Roundtrip.Icmp4.icmp4_read [8;0; 1;2; 0;7; 0;9; 99] = Roundtrip.Common.Ok (h, [99]) /\
             Roundtrip.Icmp4.icmp4_from_slice [8;0; 1;2; 0;7; 0;9; 99] = Roundtrip.Common.Ok (h, [99]) /\
             Equiv.ReadValuesNet.icmp4_ts_trailing [8;0; 1;2; 0;7; 0;9; 99] = false).
Proof.
  split; [eexists; split; [vm_compute; reflexivity|]; vm_compute; repeat split|].
  split; [eexists; split; vm_compute; reflexivity|].
  split; [vm_compute; reflexivity|]. split; [vm_compute; reflexivity|].
  eexists. split; [vm_compute; reflexivity|]. vm_compute. repeat split.
Qed.

(* non-vacuity of C06_lax_ip_boundary_slice_eq_struct: the hypotheses hold for ex_ip4_ah and both
   sides accept with the same stop error *)
Example C06_ex_lax_boundary :
  bytes_okb ex_ip4_ah = true /\ 20 <= s_len (0, ex_ip4_ah) /\
  match LaxIpHeaders.from_slice_lax (0, ex_ip4_ah), Parse.HdrLaxCut.LaxCut.ip_from_slice true (0, ex_ip4_ah) with
  | Ok (_, p, st), Ok (i, st') => p = LaxIpSlice.payload i /\ st = st' /\ st <> None
  | _, _ => False
  end.
Proof. vm_compute. repeat split; try reflexivity; discriminate. Qed.

(* ---- IpHeaders struct value ---- *)
(* The 17th type.  On the field-level model of IpHeaders built for property C08 (Roundtrip/IpHeaders.v:
   Ipv4Header / Ipv6Header / Ipv4Extensions of C08, Ipv6Extensions + read_limited of C12, LimitedReader of
   C16; executed against the crate on every `./check C08`, fields fs= / rd=): whenever
   IpHeaders::from_slice accepts a byte string -- then the slice holds the announced packet, from_slice
   checks it -- and the input is outside the known class F15 (IPv6 payload_length 0 followed by an
   extension header), IpHeaders::read over a Cursor on the same bytes returns the SAME struct value
   (every field of the IP header, every extension header) and the same ip number, and leaves the cursor
   exactly behind the headers (header_len bytes consumed).  The other excluded class of
   C06_read_eq_slice, "announced packet missing", cannot occur under the hypothesis (from_slice rejects
   such input: C06_read_announced_missing_refuted); inside F15 the two differ: C06_read_eq_slice_ip_headers_refuted
   and C08's IPHEADERS.C08_IpHeaders_read_zero_payload_len_refuted. *)
From EP Require Roundtrip.IpHeaders Equiv.ReadValuesIp.
Theorem C06_read_value_ip_headers : forall bs h p, bytes_ok bs -> F15 bs = false ->
  Roundtrip.IpHeaders.iph_from_slice bs = Roundtrip.Common.Ok (h, p) ->
  Roundtrip.IpHeaders.iph_read bs =
    Roundtrip.Common.Ok (h, Roundtrip.IpHeaders.ipp_ip_number p, drop (Roundtrip.IpHeaders.iph_header_len h) bs).
Proof.
  exact (fun bs h p OK NF H =>
           Equiv.ReadValuesIp.iph_read_eq_from_slice bs h p OK H
             (eq_trans (eq_sym (Equiv.ReadValuesIp.F15_is_zero_len_ext bs h p H)) NF)).
Qed.
Print Assumptions C06_read_value_ip_headers.

(* the same, per version-specific copy (dispatch = specific: C08's IPHEADERS.C08_IpHeaders_dispatch) *)
Theorem C06_read_value_ip_headers_v4 : forall bs h p, bytes_ok bs ->
  Roundtrip.IpHeaders.iph_from_ipv4_slice bs = Roundtrip.Common.Ok (h, p) ->
  Roundtrip.IpHeaders.iph_read bs =
    Roundtrip.Common.Ok (h, Roundtrip.IpHeaders.ipp_ip_number p, drop (Roundtrip.IpHeaders.iph_header_len h) bs).
Proof. exact Equiv.ReadValuesIp.iph_read_eq_from_slice_v4. Qed.
Print Assumptions C06_read_value_ip_headers_v4.

(* non-vacuity: IPv4 + AH + 4 payload bytes + 1 trailing byte, and IPv6 + hop-by-hop + fragment header;
   and the F15 witness of C06_read_eq_slice_ip_headers_refuted is accepted by from_slice, refused by read *)
Example C06_ex_read_value_ip_headers :
  let v4 := [69;0;0;40; 0;1;0;0; 64;51;0;0; 10;0;0;1; 10;0;0;2] ++ [17;2;0;0; 0;0;0;1; 0;0;0;2; 1;2;3;4]
            ++ [9;9;9;9] ++ [7] in
  let v6 := [96;0;0;0; 0;18; 0; 64] ++ repeat 1 16 ++ repeat 2 16 ++ [44;0;1;2;3;4;5;6] ++ [17;170;0;15;0;0;0;1]
            ++ [9;9] ++ [7;7] in
  (bytes_okb v4 = true /\ F15 v4 = false /\
   match Roundtrip.IpHeaders.iph_from_slice v4, Roundtrip.IpHeaders.iph_read v4 with
   | Roundtrip.Common.Ok (h, p), Roundtrip.Common.Ok (h', n, r) =>
       h' = h /\ n = 17 /\ Roundtrip.IpHeaders.iph_header_len h = 36 /\ r = [9;9;9;9;7]
   | _, _ => False
   end) /\
  (bytes_okb v6 = true /\ F15 v6 = false /\
   match Roundtrip.IpHeaders.iph_from_slice v6, Roundtrip.IpHeaders.iph_read v6 with
   | Roundtrip.Common.Ok (h, p), Roundtrip.Common.Ok (h', n, r) =>
       h' = h /\ n = 17 /\ Roundtrip.IpHeaders.iph_header_len h = 56 /\ r = [9;9;7;7]
   | _, _ => False
   end) /\
  (F15 f15_witness = true /\
   match Roundtrip.IpHeaders.iph_from_slice f15_witness, Roundtrip.IpHeaders.iph_read f15_witness with
   | Roundtrip.Common.Ok _, Roundtrip.Common.Err Roundtrip.Common.ELen => True
   | _, _ => False
   end).
Proof. vm_compute. repeat split; reflexivity. Qed.

From EP Require Equiv.ReadNeverBad Equiv.HdrMismatch Equiv.ReadValues6Total Equiv.ReadValuesTotal Roundtrip.DecodersTotal.

(* ---- group 3: no reader ever reaches an impossible outcome ------------------------------------ *)
(* For EVERY list of numbers and all 17 header types -- inside the three exclusion classes of
   C06_read_eq_slice too: T::read over a Cursor never ends in an outcome the model calls impossible
   (OBad: an Io error other than the end of the data, a usize underflow of the LimitedReader, an
   impossible index, exhausted fuel).  Outside the classes same_reason implies it as well. *)
Theorem C06_read_never_bad : forall t bs b, read_outcome t bs <> OBad b.
Proof. exact Equiv.ReadNeverBad.read_never_bad. Qed.
Print Assumptions C06_read_never_bad.

(* inside cut_fixed, the IpHeaders case beside C06_read_cut_fixed_inside: IpHeaders::read has
   seen version nibble 4 and an IHL below 5 after ONE byte, from_slice wants 20 bytes first *)
Theorem C06_read_cut_fixed_inside_ip_headers : forall bs, cut_fixed HIpHeaders bs = true ->
  read_outcome HIpHeaders bs = OContent (KC CIhl) /\ slice_outcome HIpHeaders bs = OEof.
Proof. exact Equiv.ReadNeverBad.read_cut_fixed_ip_headers. Qed.
Print Assumptions C06_read_cut_fixed_inside_ip_headers.

(* what C06_read_eq_slice compares when one side rejects, spelled out.  A Len error that is not about
   the end of the data (OLen: the LimitedReader's, resp. a slice Len error whose len_source is not the
   slice) on either side is the same RECORD on the other: len, len_source, layer and
   layer_start_offset equal, required_len equal except for the raw extension header with fewer than 8
   bytes left (C06_read_required_len_differs).  A content rejection is compared by KIND (kind_of:
   the offending version nibble / IHL / data offset is dropped, the C16 read programs carry none; SLL
   kinds keep their value); every slice Len error whose source is the slice itself (or ArpAddrLengths)
   is the reader's UnexpectedEof -- the reader has no record to compare with. *)
Theorem C06_read_len_error_full : forall t bs, bytes_ok bs -> cut_fixed t bs = false ->
  (t = HIpHeaders -> announced_missing bs = false /\ F15 bs = false) ->
  forall rq l src ly off,
  (read_outcome t bs = OLen rq l src ly off ->
   exists rq', slice_outcome t bs = OLen rq' l src ly off /\
               (rq = rq' \/ (ly = L_IPV6EXT /\ l < 8 /\ l < rq /\ rq' = 8))) /\
  (slice_outcome t bs = OLen rq l src ly off ->
   exists rq', read_outcome t bs = OLen rq' l src ly off /\
               (rq' = rq \/ (ly = L_IPV6EXT /\ l < 8 /\ l < rq' /\ rq = 8))).
Proof. exact Equiv.ReadNeverBad.read_len_error_full. Qed.
Print Assumptions C06_read_len_error_full.

Theorem C06_read_rejection_iff : forall t bs, bytes_ok bs -> cut_fixed t bs = false ->
  (t = HIpHeaders -> announced_missing bs = false /\ F15 bs = false) ->
  (forall k, read_outcome t bs = OContent k <-> slice_outcome t bs = OContent k) /\
  (read_outcome t bs = OEof <-> slice_outcome t bs = OEof).
Proof. exact Equiv.ReadNeverBad.read_rejection_iff. Qed.
Print Assumptions C06_read_rejection_iff.

(* non-vacuity: an OLen on both sides (ex_v6 12 of C06_ex_read_all), an OBad-free answer inside each class *)
Example C06_ex_never_bad :
  read_outcome HIpHeaders (ex_v6 12) = OLen 8 4 LS_IPV6_PAYLOAD L_IPV6FRAG 48 /\
  cut_fixed HIpHeaders [64] = true /\ read_outcome HIpHeaders [64] = OContent (KC CIhl) /\
  F15 f15_witness = true /\ (exists e, read_outcome HIpHeaders f15_witness = e /\ forall b, e <> OBad b) /\
  read_outcome HTcp (repeat 0 12 ++ [64] ++ repeat 0 7) = OContent (KC CDataOffset) /\
  slice_outcome HTcp (repeat 0 12 ++ [64] ++ repeat 0 7) = OContent (KC CDataOffset).
Proof.
  split; [vm_compute; reflexivity|]. split; [reflexivity|]. split; [vm_compute; reflexivity|].
  split; [vm_compute; reflexivity|].
  split; [eexists; split; [reflexivity|]; intros b; apply Equiv.ReadNeverBad.read_never_bad|].
  vm_compute. repeat split.
Qed.

(* ---- group 1, struct family: nibble and ether type disagree ----------------------------------- *)
(* C06_ethertype_mismatch is about SlicedPacket; the same four answers for PacketHeaders::from_ether_type
   (data shorter than the fixed header, or another version nibble).  With C06_headers_ethertype_eq_ip
   (matching nibble) every input of from_ether_type(IPv4 | IPv6) is covered.  The two lax families never
   reject here (C06_lax_ethertype_eq_ip / C06_laxheaders_ethertype_eq_ip: the error becomes the stop error). *)
Theorem C06_headers_ethertype_mismatch : forall bs,
  (len bs < 20 ->
   PacketHeaders.from_ether_type ET_IPV4 bs =
   Err (ELen (mkLenError 20 (len bs) LsSlice LyIpv4Header 0))) /\
  (len bs < 40 ->
   PacketHeaders.from_ether_type ET_IPV6 bs =
   Err (ELen (mkLenError 40 (len bs) LsSlice LyIpv6Header 0))) /\
  (forall b rest, bs = b :: rest -> 20 <= len bs -> N.shiftr b 4 <> 4 ->
   PacketHeaders.from_ether_type ET_IPV4 bs = Err (EContent (CeIpv4Version (N.shiftr b 4)))) /\
  (forall b rest, bs = b :: rest -> 40 <= len bs -> N.shiftr b 4 <> 6 ->
   PacketHeaders.from_ether_type ET_IPV6 bs = Err (EContent (CeIpv6Version (N.shiftr b 4)))).
Proof. exact Equiv.HdrMismatch.headers_ethertype_mismatch. Qed.
Print Assumptions C06_headers_ethertype_mismatch.

Example C06_ex_headers_mismatch :
  PacketHeaders.from_ether_type ET_IPV6 ex_ip = Err (ELen (mkLenError 40 32 LsSlice LyIpv6Header 0)) /\
  PacketHeaders.from_ether_type ET_IPV4 (ex_v6 24) = Err (EContent (CeIpv4Version 6)).
Proof. vm_compute. repeat split. Qed.

(* ---- group 3, header values: the value theorems do not hold "for the wrong reason" ------------- *)
(* C06_read_value_* are equations between two field-level decoder models.  Those models have failure
   values of their own (Roundtrip.Common.EOOB / EPanic: unchecked read out of bounds, slice-index panic;
   BitFields.Model OOB / UBRange / Panic / Other) which the C08 / C15 theorems exclude for ACCEPTED inputs
   only.  For every byte string -- rejected ones included -- every from_slice / read model the value
   theorems mention returns a value or a proper error (Len / Content / Io): `proper`, Roundtrip/DecodersTotal.v
   (= C08_decoders_total_any / _bytes, stated there for all C08 types). *)
Theorem C06_read_value_models_total : forall bs, bytes_ok bs ->
  Roundtrip.DecodersTotal.proper (Roundtrip.Eth.eth_from_slice bs) /\ Roundtrip.DecodersTotal.proper (Roundtrip.Eth.eth_read bs) /\
  Roundtrip.DecodersTotal.proper (Roundtrip.Vlan.vl_from_slice bs) /\ Roundtrip.DecodersTotal.proper (Roundtrip.Vlan.vl_read bs) /\
  Roundtrip.DecodersTotal.proper (Roundtrip.Sll.sll_from_slice bs) /\ Roundtrip.DecodersTotal.proper (Roundtrip.Sll.sll_read bs) /\
  Roundtrip.DecodersTotal.proper (Roundtrip.Macsec.mac_from_slice bs) /\ Roundtrip.DecodersTotal.proper (Roundtrip.Macsec.mac_read bs) /\
  Roundtrip.DecodersTotal.proper (Roundtrip.Arp.arp_from_slice bs) /\ Roundtrip.DecodersTotal.proper (Roundtrip.Arp.arp_read bs) /\
  Roundtrip.DecodersTotal.proper (Roundtrip.Ipv4.ip4_from_slice bs) /\ Roundtrip.DecodersTotal.proper (Roundtrip.Ipv4.ip4_read bs) /\
  Roundtrip.DecodersTotal.proper (Roundtrip.Auth.ah_from_slice bs) /\ Roundtrip.DecodersTotal.proper (Roundtrip.Auth.ah_read bs) /\
  Roundtrip.DecodersTotal.proper (Roundtrip.RawExt.rx_from_slice bs) /\ Roundtrip.DecodersTotal.proper (Roundtrip.RawExt.rx_read bs) /\
  Roundtrip.DecodersTotal.proper (Roundtrip.Frag.frag_from_slice bs) /\ Roundtrip.DecodersTotal.proper (Roundtrip.Frag.frag_read bs) /\
  Roundtrip.DecodersTotal.proper (Roundtrip.Tcp.from_slice bs) /\ Roundtrip.DecodersTotal.proper (Roundtrip.Tcp.read bs) /\
  Roundtrip.DecodersTotal.proper (Roundtrip.Udp.udp_from_slice bs) /\ Roundtrip.DecodersTotal.proper (Roundtrip.Udp.udp_read bs) /\
  Roundtrip.DecodersTotal.proper (Roundtrip.Icmp4.icmp4_from_slice bs) /\ Roundtrip.DecodersTotal.proper (Roundtrip.Icmp4.icmp4_read bs) /\
  Roundtrip.DecodersTotal.proper (Roundtrip.Icmp6.icmp6_from_slice bs) /\ Roundtrip.DecodersTotal.proper (Roundtrip.Icmp6.icmp6_read bs) /\
  (forall start, Roundtrip.DecodersTotal.proper (Roundtrip.Exts4.x4_from_slice start bs) /\
                 Roundtrip.DecodersTotal.proper (Roundtrip.Exts4.x4_read bs start)) /\
  Roundtrip.DecodersTotal.proper (Roundtrip.IpHeaders.iph_from_slice bs) /\ Roundtrip.DecodersTotal.proper (Roundtrip.IpHeaders.iph_read bs) /\
  Equiv.ReadValues6Total.proper6 (BitFields.Model.Ipv6Header_from_slice bs) /\
  Equiv.ReadValues6Total.proper6 (BitFields.Model.Ipv6Header_read bs) /\
  (forall first, Roundtrip.DecodersTotal.x6_proper (ExtChain.Model.from_slice first bs)) /\
  (forall first, Roundtrip.DecodersTotal.qreg
     (fst (ExtChain.ReadModel.read6 false first (IoFault.Model.mk_rstate (ExtChain.ReadModel.cursor bs) None)))).
Proof. exact Equiv.ReadValuesTotal.read_value_models_total. Qed.
Print Assumptions C06_read_value_models_total.

(* both kinds of answers occur: proper errors on rejected inputs, and the model failure that bytes_ok
   excludes (a length "octet" of 300) *)
Example C06_ex_models_total :
  Roundtrip.Auth.ah_read ([17; 300] ++ repeat 0 10) = Roundtrip.Common.Err Roundtrip.Common.EPanic /\
  Roundtrip.Auth.ah_from_slice [17; 2; 0; 0; 0; 0; 0; 1; 0; 0; 0; 2; 1; 2; 3] = Roundtrip.Common.Err Roundtrip.Common.ELen /\
  Roundtrip.Auth.ah_read [17; 2; 0; 0; 0; 0; 0; 1; 0; 0; 0; 2; 1; 2; 3] = Roundtrip.Common.Err Roundtrip.Common.EIo /\
  Roundtrip.IpHeaders.iph_read [64] = Roundtrip.Common.Err (Roundtrip.Common.EContent 0).
Proof. vm_compute. repeat split. Qed.

(* `Ipv6Slice::from_slice_lax` (net/ipv6_slice.rs:139), the 13th copy of the IP boundary logic.
   Model: Parse/Ipv6SliceLax.v (module Ipv6SliceLax), proofs:
   Equiv/Ipv6SliceLaxProofs.v, Equiv/Ipv6SliceLaxTotal.v; tied to the crate by the `ipb` cases of this property's run
   (field `Ipv6SliceLax`).  The Rust function is NOT a forwarding alias: it is a third textual
   copy of `Ipv6Slice::from_slice` whose "more payload announced than present" branch takes the
   rest of the slice (LenSource::Slice) instead of returning Len(Ipv6Packet); behind the payload
   selection it runs the STRICT extension decoder.  `Ipv4Slice` has no `from_slice_lax` in the
   crate.
   Vocabulary (Equiv/Ipv6SliceLaxProofs.v):
     v6lax_of_lax6 r   what from_slice_lax answers, read off LaxIpv6Slice::from_slice's answer r;
     v6lax_of_lax_ip r the same for the dispatching LaxIpSlice::from_slice;
     v6lax_select      the payload selection of from_slice_lax;
     strict_v6_tail    (Parse/LaxProofs.v) the strict code behind the payload selection;
     strict_v6         (Parse/LaxAccess.v) a LaxIpv6Slice value without its `incomplete` flag. *)
From EP Require Import Parse.Repr Parse.Access Parse.AccessProofs Parse.LaxAccess Parse.LaxProofs Parse.LaxFacts
  Parse.Ipv6SliceLax Equiv.Ipv6SliceLaxProofs Equiv.Ipv6SliceLaxTotal.

(* pin the meaning of the two read-off functions *)
Check (eq_refl : v6lax_of_lax6 =
  fun r => match r with
           | Ok (lv, None) => Ok (strict_v6 lv)
           | Ok (_, Some (e, _)) => Err e
           | Err e => Err e
           | Bug b => Bug b
           end).
Check (eq_refl : v6lax_of_lax_ip =
  fun r => match r with
           | Ok (LIpV6 lv, None) => Ok (strict_v6 lv)
           | Ok (LIpV6 _, Some (e, _)) => Err e
           | Ok (LIpV4 _, _) => Bug SITE_UNWRAP
           | Err e => Err e
           | Bug b => Bug b
           end).

(* ---- C01 / C02 shape ---- every slice value (any pointer, any contents, any length): the run
   returns Ok or Err, never Bug (no failing unchecked read / from_raw_parts / usize subtraction /
   exhausted fuel); the header, the extension window and the payload stored in an Ok value are
   from_raw_parts-windows of the input (`ipv6_in`), the value satisfies the invariant of
   Ipv6Slice (`wf_ipv6`: 40-byte header, extension window that the iterator re-walks), and on
   octets every accessor / extension-iterator run is Bug-free with its windows inside the input *)
Theorem C06_ipv6_slice_lax_total : forall s,
  nobug (Ipv6SliceLax.from_slice_lax s) /\
  forall v, Ipv6SliceLax.from_slice_lax s = Ok v ->
    wf_ipv6 v /\ ipv6_in v s /\
    (bytes_ok (snd s) ->
     Forall nobug (Ipv6SliceA.accessors v) /\ Forall (win_ok s) (Ipv6SliceA.windows v)).
Proof. exact v6lax_total. Qed.
Print Assumptions C06_ipv6_slice_lax_total.

(* the answer depends on the bytes only: moving the pointer by k moves every stored slice by k
   (Err and Bug values EQUAL); a window of a larger buffer = a standalone copy of its bytes *)
Theorem C06_ipv6_slice_lax_location_independent : forall k s,
  Ipv6SliceLax.from_slice_lax (sh k s) = rmap (sh_v6 k) (Ipv6SliceLax.from_slice_lax s).
Proof. exact v6lax_sh. Qed.
Print Assumptions C06_ipv6_slice_lax_location_independent.

Theorem C06_ipv6_slice_lax_surroundings_independent : forall bs s pos lim,
  repr bs s pos lim ->
  Ipv6SliceLax.from_slice_lax s =
  rmap (sh_v6 pos) (Ipv6SliceLax.from_slice_lax (mk_slice (take (lim - pos) (drop pos bs)))).
Proof. exact v6lax_window. Qed.
Print Assumptions C06_ipv6_slice_lax_surroundings_independent.

(* ---- C06, the copies agree ---- against LaxIpv6Slice::from_slice: plain equality with the
   read-off function, EVERY slice value (any pointer, any contents, any length), no hypothesis.
   (Equiv/Ipv6SliceLaxTotal.v: the lax sibling never returns Bug on any slice value --
   C06_lax_ipv6_never_bug below; C01_lax_single_no_oob has that for windows of an octet buffer.) *)
Theorem C06_ipv6_slice_lax_eq_lax_ipv6 : forall s,
  Ipv6SliceLax.from_slice_lax s = v6lax_of_lax6 (LaxIpv6Slice.from_slice s).
Proof. exact v6lax_eq_lax6_all. Qed.
Print Assumptions C06_ipv6_slice_lax_eq_lax_ipv6.

Theorem C06_ipv6_slice_lax_ok_iff : forall s v,
  Ipv6SliceLax.from_slice_lax s = Ok v <->
  exists lv, LaxIpv6Slice.from_slice s = Ok (lv, None) /\ v = strict_v6 lv.
Proof. exact v6lax_ok_iff. Qed.
Print Assumptions C06_ipv6_slice_lax_ok_iff.

Theorem C06_lax_ipv6_never_bug : forall s nh,
  nobug (LaxIpv6Slice.from_slice s) /\ nobug (LaxIpv6Exts.from_slice_lax nh s).
Proof. exact lax6_never_bug. Qed.
Print Assumptions C06_lax_ipv6_never_bug.

(* ... against the IPv6 arm of the dispatching LaxIpSlice::from_slice (version nibble 6; the
   F11 class is IPv4-only), every pointer, every byte string, no hypothesis; any other nibble /
   fewer than 40 bytes: what the copy answers *)
Theorem C06_ipv6_slice_lax_eq_lax_ip_arm : forall o b rest, N.shiftr b 4 = 6 ->
  Ipv6SliceLax.from_slice_lax (o, b :: rest) = v6lax_of_lax_ip (LaxIpSlice.from_slice (o, b :: rest)).
Proof. exact v6lax_eq_lax_ip_arm_all. Qed.
Print Assumptions C06_ipv6_slice_lax_eq_lax_ip_arm.

Theorem C06_ipv6_slice_lax_mismatch : forall o b rest, N.shiftr b 4 <> 6 ->
  Ipv6SliceLax.from_slice_lax (o, b :: rest) =
  if s_len (o, b :: rest) <? 40
  then Err (ELen (mkLenError 40 (s_len (o, b :: rest)) LsSlice LyIpv6Header 0))
  else Err (EContent (CeIpv6Version (N.shiftr b 4))).
Proof. exact v6lax_mismatch. Qed.
Print Assumptions C06_ipv6_slice_lax_mismatch.

(* ---- C05 shape ---- (a) what Ipv6Slice::from_slice accepts is returned unchanged (len_source
   included); (b) a strict rejection is kept as the same Err, except the one rejection the
   function exists to drop -- Len(40 + payload_length, len, Slice, Ipv6Packet, 0) -- where the
   answer is the strict tail run on the whole rest of the slice with the slice as length source;
   the strict model never returns Bug *)
Theorem C06_ipv6_slice_lax_extends_strict : forall s,
  match Ipv6Slice.from_slice s with
  | Ok v => Ipv6SliceLax.from_slice_lax s = Ok v
  | Err e =>
      Ipv6SliceLax.from_slice_lax s = Err e \/
      exists h pl p,
        Ipv6HeaderSlice.from_slice s = Ok h /\ Ipv6HeaderSlice.payload_length h = Ok pl /\
        s_len s < 40 + pl /\
        e = ELen (mkLenError (40 + pl) (s_len s) LsSlice LyIpv6Packet 0) /\
        subU s 40 (s_len s - 40) = Ok p /\
        Ipv6SliceLax.from_slice_lax s = strict_v6_tail h p LsSlice
  | Bug _ => False
  end.
Proof. exact v6lax_vs_strict. Qed.
Print Assumptions C06_ipv6_slice_lax_extends_strict.

(* (c) Err exactly for an undecodable IPv6 header or a fault of the (strict) extension decoder
   on the selected payload *)
Theorem C06_ipv6_slice_lax_err_iff : forall s e,
  Ipv6SliceLax.from_slice_lax s = Err e <->
  Ipv6HeaderSlice.from_slice s = Err e \/
  exists h pl hp,
    Ipv6HeaderSlice.from_slice s = Ok h /\ Ipv6HeaderSlice.payload_length h = Ok pl /\
    v6lax_select s pl = Ok hp /\ strict_v6_tail h (fst hp) (snd hp) = Err e.
Proof. exact v6lax_err_iff. Qed.
Print Assumptions C06_ipv6_slice_lax_err_iff.

(* (d) through the lax sibling (C05_incomplete_iff): the sibling's `incomplete` flag is
   "payload_length promised more than the slice holds"; exactly then -- or when payload_length
   is 0 with data behind the header -- the slice is reported as length source, and when more was
   promised than present the payload handed out ends at the slice end *)
Theorem C06_ipv6_slice_lax_len_source : forall s v,
  Ipv6SliceLax.from_slice_lax s = Ok v ->
  exists lv h pl,
    LaxIpv6Slice.from_slice s = Ok (lv, None) /\ v = strict_v6 lv /\
    Ipv6HeaderSlice.from_slice s = Ok h /\ v6_header v = h /\
    Ipv6HeaderSlice.payload_length h = Ok pl /\
    lipp_incomplete (lv6_payload lv) = (s_len s <? 40 + pl) /\
    ipp_src (v6_payload v) =
      (if ((0 =? pl) && (40 <? s_len s)) || (s_len s <? 40 + pl)
       then LsSlice else LsIpv6HeaderPayloadLen) /\
    (s_len s < 40 + pl ->
     ipp_src (v6_payload v) = LsSlice /\ s_end (ipp_slice (v6_payload v)) = s_end s).
Proof. exact v6lax_len_source. Qed.
Print Assumptions C06_ipv6_slice_lax_len_source.

(* ---- non-vacuity ---- *)
(* A: payload_length 100 announced, 8 bytes present (UDP): strict rejects, the lax copy hands
      out the 8 bytes with the slice as length source (pointer 7: windows 7 later)
   B: payload_length 8, a destination-options header announcing a routing header that is not
      there: LaxIpv6Slice keeps the chain and a stop error, the lax copy returns that error
   C: complete packet with one extension header: strict = lax copy
   D: payload_length 0 with a fragment header and 3 bytes behind it: slice as length source *)
Example C06_ex_ipv6_slice_lax :
  bytes_ok v6lax_exA /\ bytes_ok v6lax_exB /\ bytes_ok v6lax_exC /\ bytes_ok v6lax_exD /\
  (* A *)
  v6lax_show (Ipv6SliceLax.from_slice_lax (7, v6lax_exA)) =
    Some ((7, 40), None, (47, 0), 17, false, LsSlice, (47, 8)) /\
  Ipv6Slice.from_slice (7, v6lax_exA) = Err (ELen (mkLenError 140 48 LsSlice LyIpv6Packet 0)) /\
  Ipv6SliceLax.from_slice_lax (7, v6lax_exA) = v6lax_of_lax6 (LaxIpv6Slice.from_slice (7, v6lax_exA)) /\
  Ipv6SliceLax.from_slice_lax (7, v6lax_exA) = v6lax_of_lax_ip (LaxIpSlice.from_slice (7, v6lax_exA)) /\
  (* B *)
  Ipv6SliceLax.from_slice_lax (0, v6lax_exB) =
    Err (ELen (mkLenError 8 0 LsIpv6HeaderPayloadLen LyIpv6ExtHeader 48)) /\
  (match LaxIpv6Slice.from_slice (0, v6lax_exB) with
   | Ok (lv, st) => Some (win_of (x6_slice (lv6_exts lv)), st)
   | _ => None
   end) = Some ((40, 8), Some (ELen (mkLenError 8 0 LsIpv6HeaderPayloadLen LyIpv6ExtHeader 48),
                               LyIpv6RouteHeader)) /\
  (* C *)
  v6lax_show (Ipv6SliceLax.from_slice_lax (0, v6lax_exC)) =
    Some ((0, 40), Some 60, (40, 8), 6, false, LsIpv6HeaderPayloadLen, (48, 8)) /\
  Ipv6SliceLax.from_slice_lax (0, v6lax_exC) = Ipv6Slice.from_slice (0, v6lax_exC) /\
  (* D, with every accessor / iterator run and the yielded header window *)
  v6lax_show (Ipv6SliceLax.from_slice_lax (7, v6lax_exD)) =
    Some ((7, 40), Some 44, (47, 8), 17, true, LsSlice, (55, 3)) /\
  (match Ipv6SliceLax.from_slice_lax (7, v6lax_exD) with
   | Ok v => (length (Ipv6SliceA.accessors v),
              forallb (fun r => match r with Ok _ => true | _ => false end) (Ipv6SliceA.accessors v),
              map (fun r => match r with Ok w => Some (win_of w) | _ => None end) (Ipv6SliceA.windows v))
   | _ => (0%nat, false, [])
   end) = (18%nat, true, [Some (47, 8)]) /\
  (* another version nibble *)
  Ipv6SliceLax.from_slice_lax (0, 69 :: repeat 0 47) = Err (EContent (CeIpv6Version 4)) /\
  Ipv6SliceLax.from_slice_lax (0, [96; 0; 0]) = Err (ELen (mkLenError 40 3 LsSlice LyIpv6Header 0)).
Proof.
  do 4 (split; [apply bytes_okb_spec; vm_compute; reflexivity|]).
  vm_compute. repeat split.
Qed.

(* ---- group 3: the two families of `read` transliterations are ONE reader ------------------------
   The outcome-level theorems (C06_read_eq_slice, C06_read_ok_consumes, ...) run the read PROGRAMS
   of IoFault/Model.v (C16) on a Cursor: `read_outcome`.  The value-level theorems
   (the C06_read_value theorems) are about the value readers of Roundtrip/*.v (C08; C12's read6 for
   Ipv6Extensions).  Equiv/ReadLink.v, Equiv/ReadLinkIp.v: for every byte string the outcome of the
   program IS the outcome of the value reader (`rt_read_outcome t bs`, per type `rt_outcome`):
     Ok (h, rest)      <-> OOk (len bs - len rest)      cursor position = bytes consumed
     Err EIo           <-> OEof
     Err (EContent c)  <-> OContent k, k the kind of code c (the code carries the offending value)
     Err ELen          <-> a LimitedReader length error (IpHeaders / Ipv6Extensions::read_limited;
                           the value reader keeps no record: compared after `erase_len`)
     Err EOOB | EPanic <-> OBad, which C06_read_never_bad excludes
   Plain equality for the 15 types whose reader has no LimitedReader and no loop; all 17 after
   erase_len.  bytes_ok: a length "octet" >= 256 sends a value reader into a model failure. *)
From EP Require Equiv.ReadLink Equiv.ReadLinkIp Equiv.ReadValueErr.

Theorem C06_read_link : forall t bs, bytes_ok bs ->
  Equiv.ReadLink.erase_len (read_outcome t bs) = Equiv.ReadLinkIp.rt_read_outcome t bs.
Proof. exact Equiv.ReadLinkIp.read_link. Qed.
Print Assumptions C06_read_link.

Theorem C06_read_link_exact : forall t bs, bytes_ok bs -> Equiv.ReadLinkIp.plain_reader t = true ->
  read_outcome t bs = Equiv.ReadLinkIp.rt_read_outcome t bs.
Proof. exact Equiv.ReadLinkIp.read_link_exact. Qed.
Print Assumptions C06_read_link_exact.

(* non-vacuity: Ok with the cursor position (TCP with 4 option bytes + 1 byte behind), a content
   rejection whose code carries the value (IPv4 IHL 3), end of data, and the LimitedReader error of
   IpHeaders::read (C06_ex_read_all's ex_v6 12), all on both sides *)
Example C06_ex_read_link :
  let tcp := repeat 0 12 ++ [96] ++ repeat 0 11 ++ [7] in
  (bytes_okb tcp = true /\ read_outcome HTcp tcp = OOk 24 /\ Equiv.ReadLinkIp.rt_read_outcome HTcp tcp = OOk 24 /\
   exists h, Roundtrip.Tcp.read tcp = Roundtrip.Common.Ok (h, [7])) /\
  (read_outcome HIpv4 ([67] ++ repeat 0 19) = OContent (KC CIhl) /\
   Equiv.ReadLinkIp.rt_read_outcome HIpv4 ([67] ++ repeat 0 19) = OContent (KC CIhl) /\
   Roundtrip.Ipv4.ip4_read ([67] ++ repeat 0 19) = Roundtrip.Common.Err (Roundtrip.Common.EContent 3)) /\
  (read_outcome HArp [0;1;8;0;6;4;0;1;9] = OEof /\ Equiv.ReadLinkIp.rt_read_outcome HArp [0;1;8;0;6;4;0;1;9] = OEof) /\
  (bytes_okb (ex_v6 12) = true /\
   read_outcome HIpHeaders (ex_v6 12) = OLen 8 4 LS_IPV6_PAYLOAD L_IPV6FRAG 48 /\
   Equiv.ReadLinkIp.rt_read_outcome HIpHeaders (ex_v6 12) = OLen 0 0 0 0 0 /\
   Roundtrip.IpHeaders.iph_read (ex_v6 12) = Roundtrip.Common.Err Roundtrip.Common.ELen) /\
  (read_outcome HIpHeaders (ex_v6 24) = OOk 56 /\ Equiv.ReadLinkIp.rt_read_outcome HIpHeaders (ex_v6 24) = OOk 56).
Proof.
  cbv zeta. split; [split; [vm_compute; reflexivity|]; split; [vm_compute; reflexivity|];
                    split; [vm_compute; reflexivity|]; eexists; vm_compute; reflexivity|].
  vm_compute. repeat split.
Qed.

(* ---- the offending VALUE of content rejections: Ipv6Header and IpHeaders ---------------------------
   Ipv6Header on the C08 model Roundtrip/Ipv6.v (struct, unread rest, `EContent version_number`),
   for every byte string outside cut_fixed (inside, the two differ: C06_read_cut_fixed_inside):
   `cut_fixed = false` in place of the `40 <= len` of C06_read_value_ipv6, and rest + version
   number in the conclusion.  The same for Ipv4Header (C06_read_value_ipv4 has `20 <= len`). *)
Theorem C06_read_value_ipv6_full : forall bs, cut_fixed HIpv6 bs = false ->
  Roundtrip.Ipv6.ip6_read bs = eof_of_len (Roundtrip.Ipv6.ip6_from_slice bs).
Proof. exact Equiv.ReadValueErr.ip6_read_eq_from_slice_cut. Qed.
Print Assumptions C06_read_value_ipv6_full.

Theorem C06_read_value_ipv4_full : forall bs, bytes_ok bs -> cut_fixed HIpv4 bs = false ->
  Roundtrip.Ipv4.ip4_read bs = eof_of_len (Roundtrip.Ipv4.ip4_from_slice bs).
Proof. exact Equiv.ReadValueErr.ip4_read_eq_from_slice_cut. Qed.
Print Assumptions C06_read_value_ipv4_full.

(* with the link: the read PROGRAM of C06_read_eq_slice against the value-level from_slice *)
Theorem C06_read_program_eq_value_slice_ipv6 : forall bs, cut_fixed HIpv6 bs = false ->
  read_outcome HIpv6 bs =
  Equiv.ReadLink.rt_outcome Equiv.ReadLink.ipv6_kind bs snd (eof_of_len (Roundtrip.Ipv6.ip6_from_slice bs)).
Proof. exact Equiv.ReadValueErr.read_program_eq_value_slice_ipv6. Qed.
Print Assumptions C06_read_program_eq_value_slice_ipv6.

Theorem C06_read_program_eq_value_slice_ipv4 : forall bs, bytes_ok bs -> cut_fixed HIpv4 bs = false ->
  read_outcome HIpv4 bs =
  Equiv.ReadLink.rt_outcome (Equiv.ReadLink.ipv4_kind bs) bs snd (eof_of_len (Roundtrip.Ipv4.ip4_from_slice bs)).
Proof. exact Equiv.ReadValueErr.read_program_eq_value_slice_ipv4. Qed.
Print Assumptions C06_read_program_eq_value_slice_ipv4.

Example C06_ex_read_value_ipv6_full :
  let v4 := [69] ++ repeat 0 40 in
  let short6 := [96; 0; 0] in
  let ok6 := [105;18;52;86;0;8;17;64] ++ repeat 1 16 ++ repeat 2 16 ++ [9] in
  (cut_fixed HIpv6 v4 = false /\
   Roundtrip.Ipv6.ip6_read v4 = Roundtrip.Common.Err (Roundtrip.Common.EContent 4) /\
   Roundtrip.Ipv6.ip6_from_slice v4 = Roundtrip.Common.Err (Roundtrip.Common.EContent 4)) /\
  (cut_fixed HIpv6 short6 = false /\
   Roundtrip.Ipv6.ip6_read short6 = Roundtrip.Common.Err Roundtrip.Common.EIo /\
   Roundtrip.Ipv6.ip6_from_slice short6 = Roundtrip.Common.Err Roundtrip.Common.ELen) /\
  (cut_fixed HIpv6 ok6 = false /\
   exists h, Roundtrip.Ipv6.ip6_read ok6 = Roundtrip.Common.Ok (h, [9]) /\
             Roundtrip.Ipv6.ip6_from_slice ok6 = Roundtrip.Common.Ok (h, [9]) /\
             Roundtrip.Ipv6.i6_traffic_class h = 145).
Proof.
  cbv zeta. split; [vm_compute; repeat split|]. split; [vm_compute; repeat split|].
  split; [vm_compute; reflexivity|]. eexists. split; [vm_compute; reflexivity|]. vm_compute. repeat split.
Qed.

(* IpHeaders (model Roundtrip/IpHeaders.v): the two rejections that carry a value --
   err::ip::HeaderError::UnsupportedIpVersion{version_number} (code 1000 + version) and
   Ipv4HeaderLengthSmallerThanHeader{ihl} (code ihl) -- are decided by the first byte on both
   sides with the same value; from_slice wants 20 bytes before it looks at the IHL (the class
   cut_fixed).  The other content rejections of IpHeaders (hop-by-hop header not at the start,
   zero AH payload length) carry no value: C06_read_rejection_iff through C06_read_link. *)
Theorem C06_read_value_ip_headers_rejections : forall b0 r,
  (N.shiftr b0 4 <> 4 -> N.shiftr b0 4 <> 6 ->
   Roundtrip.IpHeaders.iph_read (b0 :: r) =
     Roundtrip.Common.Err (Roundtrip.IpHeaders.C_UNSUPPORTED_VERSION (N.shiftr b0 4)) /\
   Roundtrip.IpHeaders.iph_from_slice (b0 :: r) =
     Roundtrip.Common.Err (Roundtrip.IpHeaders.C_UNSUPPORTED_VERSION (N.shiftr b0 4))) /\
  (N.shiftr b0 4 = 4 -> N.land b0 15 < 5 ->
   Roundtrip.IpHeaders.iph_read (b0 :: r) = Roundtrip.Common.Err (Roundtrip.Common.EContent (N.land b0 15)) /\
   Roundtrip.IpHeaders.iph_from_slice (b0 :: r) =
     if len (b0 :: r) <? 20 then Roundtrip.Common.Err Roundtrip.Common.ELen
     else Roundtrip.Common.Err (Roundtrip.Common.EContent (N.land b0 15))).
Proof. exact Equiv.ReadValueErr.iph_value_rejections. Qed.
Print Assumptions C06_read_value_ip_headers_rejections.

Theorem C06_read_value_ip_headers_rejections_eq : forall bs, cut_fixed HIpHeaders bs = false ->
  forall b0 r, bs = b0 :: r ->
  N.shiftr b0 4 <> 6 -> (N.shiftr b0 4 = 4 -> N.land b0 15 < 5) ->
  exists c, Roundtrip.IpHeaders.iph_read bs = Roundtrip.Common.Err (Roundtrip.Common.EContent c) /\
            Roundtrip.IpHeaders.iph_from_slice bs = Roundtrip.Common.Err (Roundtrip.Common.EContent c) /\
            c = if N.shiftr b0 4 =? 4 then N.land b0 15 else 1000 + N.shiftr b0 4.
Proof. exact Equiv.ReadValueErr.iph_value_rejections_eq. Qed.
Print Assumptions C06_read_value_ip_headers_rejections_eq.

Example C06_ex_read_value_ip_headers_rejections :
  (cut_fixed HIpHeaders ([67] ++ repeat 0 19) = false /\
   Roundtrip.IpHeaders.iph_read ([67] ++ repeat 0 19) = Roundtrip.Common.Err (Roundtrip.Common.EContent 3) /\
   Roundtrip.IpHeaders.iph_from_slice ([67] ++ repeat 0 19) = Roundtrip.Common.Err (Roundtrip.Common.EContent 3)) /\
  (cut_fixed HIpHeaders [112; 1] = false /\
   Roundtrip.IpHeaders.iph_read [112; 1] = Roundtrip.Common.Err (Roundtrip.Common.EContent 1007) /\
   Roundtrip.IpHeaders.iph_from_slice [112; 1] = Roundtrip.Common.Err (Roundtrip.Common.EContent 1007)) /\
  (cut_fixed HIpHeaders [67; 1] = true /\
   Roundtrip.IpHeaders.iph_read [67; 1] = Roundtrip.Common.Err (Roundtrip.Common.EContent 3) /\
   Roundtrip.IpHeaders.iph_from_slice [67; 1] = Roundtrip.Common.Err Roundtrip.Common.ELen).
Proof. vm_compute. repeat split. Qed.

(* ... and these two are the ONLY value-carrying rejections: with version nibble 4 and IHL >= 5, or
   nibble 6, a content rejection of either side has code 0 (zero AH payload length) or 1
   (hop-by-hop header not at the start) -- no value to compare *)
Theorem C06_read_value_ip_headers_no_other_value : forall b0 r c,
  (N.shiftr b0 4 = 4 /\ 5 <= N.land b0 15) \/ N.shiftr b0 4 = 6 ->
  Roundtrip.IpHeaders.iph_read (b0 :: r) = Roundtrip.Common.Err (Roundtrip.Common.EContent c) \/
  Roundtrip.IpHeaders.iph_from_slice (b0 :: r) = Roundtrip.Common.Err (Roundtrip.Common.EContent c) ->
  c = 0 \/ c = 1.
Proof. exact Equiv.ReadValueErr.iph_other_rejections_no_value. Qed.
Print Assumptions C06_read_value_ip_headers_no_other_value.

Example C06_ex_read_value_ip_headers_no_other_value :
  let ah0 := [69;0;0;32; 0;0;0;0; 64;51;0;0; 10;0;0;1; 10;0;0;2] ++ [17;0;0;0; 0;0;0;1; 0;0;0;2] in
  N.shiftr 69 4 = 4 /\ 5 <= N.land 69 15 /\
  Roundtrip.IpHeaders.iph_read ah0 = Roundtrip.Common.Err (Roundtrip.Common.EContent 0) /\
  Roundtrip.IpHeaders.iph_from_slice ah0 = Roundtrip.Common.Err (Roundtrip.Common.EContent 0).
Proof. vm_compute. repeat split; discriminate. Qed.
