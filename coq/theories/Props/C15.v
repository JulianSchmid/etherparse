(* Props/C15.v -- property C15: bit-field types hold only in-range values and
   never bleed into neighbours.  Each theorem is the named lemma of the
   proof files; the Examples are test vectors checked by evaluation.
   Vocabulary: BitFields/Spec.v (RFC layouts, `field`, `agree_outside`),
   BitFields/Model.v (the Rust functions), BitFields/Fields.v (ok / get / set). *)
From EP Require Parse.GenAccessOk.   (* the field accessors, re-translated from the Rust source on every run (Gen/Accessors.v), equal the hand models the theorems below are about *)
From EP Require Parse.ConstsAllOk.   (* every numeric `pub const` of the crate, regenerated from the source on every run, has its RFC / IANA value *)
From EP Require Import Base.Bytes BitFields.Spec BitFields.Model BitFields.Fields
  BitFields.BitLemmas BitFields.Proofs BitFields.Proofs2 BitFields.Proofs3.
Local Open Scope N_scope.

(* ---- 1. checked constructors: Ok exactly for the values that fit ------- *)
(* checked_ctor max w try_new try_from new_unchecked :=
     max = 2^w - 1 /\ (forall v, try_new v = TOk v <-> v <= max) /\
     (forall v, max < v -> try_new v = TErr v max) /\ (forall v, try_from v = try_new v) /\
     (forall v, new_unchecked v = Val v <-> v <= max) /\ (forall v, max < v -> new_unchecked v = UB)
   for ALL v (unbounded N), not only those of the argument type *)

Theorem C15_VlanId : checked_ctor VlanId_MAX_U16 12 VlanId_try_new VlanId_try_from VlanId_new_unchecked.
Proof. exact VlanId_ctor. Qed.
Print Assumptions C15_VlanId.

Theorem C15_VlanPcp : checked_ctor VlanPcp_MAX_U8 3 VlanPcp_try_new VlanPcp_try_from VlanPcp_new_unchecked.
Proof. exact VlanPcp_ctor. Qed.
Print Assumptions C15_VlanPcp.

Theorem C15_IpDscp : checked_ctor IpDscp_MAX_U8 6 IpDscp_try_new IpDscp_try_from IpDscp_new_unchecked.
Proof. exact IpDscp_ctor. Qed.
Print Assumptions C15_IpDscp.

Theorem C15_IpEcn :
  IpEcn_MAX_U8 = 2 ^ N.of_nat 2 - 1 /\
  (forall v, IpEcn_try_new v = Val (TOk v) <-> v <= IpEcn_MAX_U8) /\
  (forall v, IpEcn_MAX_U8 < v -> IpEcn_try_new v = Val (TErr v IpEcn_MAX_U8)) /\
  (forall v, IpEcn_try_from v = IpEcn_try_new v) /\
  (forall v, IpEcn_new_unchecked v = Val v <-> v <= IpEcn_MAX_U8) /\
  (forall v, IpEcn_MAX_U8 < v -> IpEcn_new_unchecked v = Fail UBRange).
Proof. exact IpEcn_ctor. Qed.
Print Assumptions C15_IpEcn.

Theorem C15_IpFragOffset :
  checked_ctor IpFragOffset_MAX_U16 13 IpFragOffset_try_new IpFragOffset_try_from IpFragOffset_new_unchecked.
Proof. exact IpFragOffset_ctor. Qed.
Print Assumptions C15_IpFragOffset.

Theorem C15_Ipv6FlowLabel :
  checked_ctor Ipv6FlowLabel_MAX_U32 20 Ipv6FlowLabel_try_new Ipv6FlowLabel_try_from Ipv6FlowLabel_new_unchecked.
Proof. exact Ipv6FlowLabel_ctor. Qed.
Print Assumptions C15_Ipv6FlowLabel.

Theorem C15_MacsecAn : checked_ctor MacsecAn_MAX_U8 2 MacsecAn_try_new MacsecAn_try_from MacsecAn_new_unchecked.
Proof. exact MacsecAn_ctor. Qed.
Print Assumptions C15_MacsecAn.

Theorem C15_MacsecShortLen :
  checked_ctor MacsecShortLen_MAX_U8 6 MacsecShortLen_try_from_u8 MacsecShortLen_try_from
    MacsecShortLen_from_u8_unchecked.
Proof. exact MacsecShortLen_ctor. Qed.
Print Assumptions C15_MacsecShortLen.

Theorem C15_Qrv : checked_ctor Qrv_MAX_U8 3 Qrv_try_new Qrv_try_from Qrv_new_unchecked.
Proof. exact Qrv_ctor. Qed.
Print Assumptions C15_Qrv.

(* the two unchecked-but-total constructors of MacsecShortLen, for every usize *)
Theorem C15_MacsecShortLen_from_len : forall l,
  MacsecShortLen_from_len l <= MacsecShortLen_MAX_U8 /\
  MacsecShortLen_from_len l = (if l <=? 63 then l else 0).
Proof. exact MacsecShortLen_from_len_spec. Qed.
Print Assumptions C15_MacsecShortLen_from_len.

Theorem C15_Macsec_set_payload_len : forall p n,
  exists sl, MacsecHeader_set_payload_len p n = Val sl /\ sl <= MacsecShortLen_MAX_U8 /\
    sl = (if is_unmodified p then (if n <=? 61 then n + 2 else 0) else (if n <=? 63 then n else 0)).
Proof. exact MacsecHeader_set_payload_len_spec. Qed.
Print Assumptions C15_Macsec_set_payload_len.

(* ---- 2. decoders: on every slice, only in-range values, never UB -------- *)
(* acc_in_range acc max := forall s, bytes_ok s ->
     acc s <> Fail UBRange /\ forall v, acc s = Val v -> v <= max *)

Theorem C15_dec_vlan :
  acc_in_range VHS_priority_code_point VlanPcp_MAX_U8 /\ acc_in_range VHS_vlan_identifier VlanId_MAX_U16 /\
  acc_in_range VS_priority_code_point VlanPcp_MAX_U8 /\ acc_in_range VS_vlan_identifier VlanId_MAX_U16.
Proof. exact (conj VHS_pcp_in_range (conj VHS_vid_in_range (conj VS_pcp_in_range VS_vid_in_range))). Qed.
Print Assumptions C15_dec_vlan.

Theorem C15_dec_ipv4 :
  acc_in_range V4S_dcp IpDscp_MAX_U8 /\ acc_in_range V4S_ecn IpEcn_MAX_U8 /\
  acc_in_range V4S_fragments_offset IpFragOffset_MAX_U16.
Proof. exact (conj V4S_dcp_in_range (conj V4S_ecn_in_range V4S_fo_in_range)). Qed.
Print Assumptions C15_dec_ipv4.

Theorem C15_dec_ipv6 :
  acc_in_range V6S_dscp IpDscp_MAX_U8 /\ acc_in_range V6S_ecn IpEcn_MAX_U8 /\
  acc_in_range V6S_flow_label Ipv6FlowLabel_MAX_U32 /\
  acc_in_range FRS_fragment_offset IpFragOffset_MAX_U16.
Proof. exact (conj V6S_dscp_in_range (conj V6S_ecn_in_range (conj V6S_flow_in_range FRS_fo_in_range))). Qed.
Print Assumptions C15_dec_ipv6.

Theorem C15_dec_macsec :
  acc_in_range MS_an MacsecAn_MAX_U8 /\ acc_in_range MS_short_len MacsecShortLen_MAX_U8.
Proof. exact (conj MS_an_in_range MS_sl_in_range). Qed.
Print Assumptions C15_dec_macsec.

Theorem C15_dec_igmp : forall raw, raw < 256 ->
  Query_flags raw = raw / 16 /\ b2n (Query_s_flag raw) = (raw / 8) mod 2 /\
  Query_qrv raw = Val (raw mod 8) /\ raw mod 8 <= Qrv_MAX_U8 /\
  nbits 8 raw = layout_bits (igmp_byte8_layout (raw / 16) ((raw / 8) mod 2) (raw mod 8)).
Proof. exact query_getters. Qed.
Print Assumptions C15_dec_igmp.

(* Ipv6Header::dscp()/ecn() on the traffic class value *)
Theorem C15_dec_ipv6_tc : forall tc, tc < 256 ->
  Ipv6Header_dscp tc = Val (tc / 4) /\ Ipv6Header_ecn tc = Val (tc mod 4) /\
  tc / 4 <= IpDscp_MAX_U8 /\ tc mod 4 <= IpEcn_MAX_U8.
Proof. exact ipv6_tc_accessors. Qed.
Print Assumptions C15_dec_ipv6_tc.

(* the std::io read paths and from_bytes: same guarantee for every input *)
Theorem C15_dec_read_ipv4 : forall reader, bytes_ok reader -> no_ub (Ipv4Header_read reader) v4_in_range.
Proof. exact Ipv4Header_read_in_range. Qed.
Print Assumptions C15_dec_read_ipv4.

Theorem C15_dec_read_ipv6 : forall reader, bytes_ok reader -> no_ub (Ipv6Header_read reader) v6_in_range.
Proof. exact Ipv6Header_read_in_range. Qed.
Print Assumptions C15_dec_read_ipv6.

Theorem C15_dec_from_bytes_vlan : forall a b c d, a < 256 -> b < 256 ->
  no_ub (SingleVlanHeader_from_bytes a b c d) vlan_in_range.
Proof. exact SingleVlanHeader_from_bytes_in_range. Qed.
Print Assumptions C15_dec_from_bytes_vlan.

(* the raw expressions of the decoders read exactly the RFC's bit ranges
   (complete sweeps over the one or two bytes they look at) *)
Theorem C15_dec_bits_tci : forall a b, a < 256 -> b < 256 ->
  N.land (N.shiftr a 5) 7 = field (bits_of [a; b]) 0 3 /\
  b2n (nonzero (N.land a 16)) = field (bits_of [a; b]) 3 1 /\
  be16 (N.land a 15) b = field (bits_of [a; b]) 4 12.
Proof. exact raw_fields_tci. Qed.
Print Assumptions C15_dec_bits_tci.

Theorem C15_dec_bits_ipv4 : forall a b, a < 256 -> b < 256 ->
  (N.shiftr b 2 = field (bits_of [b]) 0 6 /\ N.land b 3 = field (bits_of [b]) 6 2) /\
  (b2n (nonzero (N.land a 64)) = field (bits_of [a; b]) 1 1 /\
   b2n (nonzero (N.land a 32)) = field (bits_of [a; b]) 2 1 /\
   be16 (N.land a 31) b = field (bits_of [a; b]) 3 13).
Proof. exact (fun a b Ha Hb => conj (raw_fields_ipv4_1 b Hb) (raw_fields_ipv4_67 a b Ha Hb)). Qed.
Print Assumptions C15_dec_bits_ipv4.

Theorem C15_dec_bits_ipv6 : forall a b, a < 256 -> b < 256 ->
  (let tc := N.lor (shl8 a 4) (N.shiftr b 4) in
   tc = field (bits_of [a; b]) 4 8 /\ N.land (N.shiftr tc 2) 63 = field (bits_of [a; b]) 4 6 /\
   N.land tc 3 = field (bits_of [a; b]) 10 2 /\ N.land b 15 = field (bits_of [b]) 4 4) /\
  (N.shiftr (be16 a b) 3 = field (bits_of [a; b]) 0 13 /\
   b2n (nonzero (N.land b 1)) = field (bits_of [a; b]) 15 1).
Proof. exact (fun a b Ha Hb => conj (raw_fields_ipv6_01 a b Ha Hb) (raw_fields_frag a b Ha Hb)). Qed.
Print Assumptions C15_dec_bits_ipv6.

Theorem C15_dec_bits_macsec : forall t s, t < 256 -> s < 256 ->
  b2n (nonzero (N.land t 128)) = field (bits_of [t]) 0 1 /\
  b2n (nonzero (N.land t 64)) = field (bits_of [t]) 1 1 /\
  b2n (nonzero (N.land t 32)) = field (bits_of [t]) 2 1 /\
  b2n (nonzero (N.land t 16)) = field (bits_of [t]) 3 1 /\
  b2n (nonzero (N.land t 8)) = field (bits_of [t]) 4 1 /\
  b2n (nonzero (N.land t 4)) = field (bits_of [t]) 5 1 /\
  N.land t 3 = field (bits_of [t]) 6 2 /\
  N.land s 63 = field (bits_of [s]) 2 6.
Proof. exact raw_fields_macsec. Qed.
Print Assumptions C15_dec_bits_macsec.

(* ---- 3. encoders: exactly the RFC layout; one field changes only its bits ---- *)

(* 802.1Q *)
Theorem C15_vlan_layout : forall h, vlan_ok h ->
  bits_of (SingleVlanHeader_to_bytes h) = layout_bits (vlan_spec_layout h).
Proof. exact vlan_enc_layout. Qed.
Print Assumptions C15_vlan_layout.

Theorem C15_vlan_no_bleed : forall f h v, vlan_ok h -> wfits (vlan_range f) v ->
  agree_outside (fst (vlan_range f)) (snd (vlan_range f))
    (bits_of (SingleVlanHeader_to_bytes (vlan_set f h v))) (bits_of (SingleVlanHeader_to_bytes h)).
Proof. exact vlan_no_bleed. Qed.
Print Assumptions C15_vlan_no_bleed.

(* all three decoders (from_bytes, SingleVlanHeaderSlice, SingleVlanSlice) give back the header *)
Theorem C15_vlan_roundtrip : forall h, vlan_ok h ->
  match SingleVlanHeader_to_bytes h with
  | [b0; b1; b2; b3] =>
      SingleVlanHeader_from_bytes b0 b1 b2 b3 = Val h /\
      SingleVlanHeader_from_slice [b0; b1; b2; b3] = Val h /\
      SingleVlanSlice_decode [b0; b1; b2; b3] = Val h
  | _ => False
  end.
Proof. exact vlan_roundtrip_all. Qed.
Print Assumptions C15_vlan_roundtrip.

(* IPv4 *)
Theorem C15_ipv4_layout : forall h, ipv4_ok h ->
  bits_of (Ipv4Header_to_bytes h) = layout_bits (ipv4_spec_layout h) /\
  Ipv4Header_write_raw h = Ipv4Header_to_bytes h.
Proof. exact (fun h H => conj (ipv4_enc_layout h H) eq_refl). Qed.
Print Assumptions C15_ipv4_layout.

Theorem C15_ipv4_no_bleed : forall f h v, ipv4_ok h -> wfits (ipv4_range f) v ->
  agree_outside (fst (ipv4_range f)) (snd (ipv4_range f))
    (bits_of (Ipv4Header_to_bytes (ipv4_set f h v))) (bits_of (Ipv4Header_to_bytes h)).
Proof. exact ipv4_no_bleed. Qed.
Print Assumptions C15_ipv4_no_bleed.

Theorem C15_ipv4_roundtrip : forall h, ipv4_ok h ->
  Ipv4Header_from_slice (Ipv4Header_to_bytes h) = Val h.
Proof. exact ipv4_roundtrip. Qed.
Print Assumptions C15_ipv4_roundtrip.

(* IPv6, DSCP and ECN written through Ipv6Header::set_dscp / set_ecn *)
Theorem C15_ipv6_layout : forall h, ipv6_ok h ->
  bits_of (Ipv6Header_to_bytes h) = layout_bits (ipv6_spec_layout h) /\
  bits_of (Ipv6Header_to_bytes h) = layout_bits (ipv6_spec_layout_ds h).
Proof. exact (fun h H => conj (ipv6_enc_layout h H) (ipv6_enc_layout_ds h H)). Qed.
Print Assumptions C15_ipv6_layout.

Theorem C15_ipv6_no_bleed : forall f h v, ipv6_ok h -> wfits (ipv6_range f) v ->
  agree_outside (fst (ipv6_range f)) (snd (ipv6_range f))
    (bits_of (Ipv6Header_to_bytes (ipv6_set f h v))) (bits_of (Ipv6Header_to_bytes h)).
Proof. exact ipv6_no_bleed. Qed.
Print Assumptions C15_ipv6_no_bleed.

Theorem C15_ipv6_roundtrip : forall h, ipv6_ok h ->
  Ipv6Header_from_slice (Ipv6Header_to_bytes h) = Val h.
Proof. exact ipv6_roundtrip. Qed.
Print Assumptions C15_ipv6_roundtrip.

Theorem C15_ipv6_setters : forall tc, tc < 256 ->
  (forall d, d <= IpDscp_MAX_U8 ->
     let t := Ipv6Header_set_dscp tc d in
     t < 256 /\ t / 4 = d /\ t mod 4 = tc mod 4 /\
     Ipv6Header_dscp t = Val d /\ Ipv6Header_ecn t = Val (tc mod 4)) /\
  (forall e, e <= IpEcn_MAX_U8 ->
     let t := Ipv6Header_set_ecn tc e in
     t < 256 /\ t / 4 = tc / 4 /\ t mod 4 = e /\
     Ipv6Header_dscp t = Val (tc / 4) /\ Ipv6Header_ecn t = Val e).
Proof. exact (fun tc H => conj (fun d => ipv6_set_dscp_spec tc d H) (fun e => ipv6_set_ecn_spec tc e H)). Qed.
Print Assumptions C15_ipv6_setters.

(* IPv6 fragment header *)
Theorem C15_frag_layout : forall h, frag_ok h ->
  bits_of (Ipv6FragmentHeader_to_bytes h) = layout_bits (frag_spec_layout h).
Proof. exact frag_enc_layout. Qed.
Print Assumptions C15_frag_layout.

Theorem C15_frag_no_bleed : forall f h v, frag_ok h -> wfits (frag_range f) v ->
  agree_outside (fst (frag_range f)) (snd (frag_range f))
    (bits_of (Ipv6FragmentHeader_to_bytes (frag_set f h v))) (bits_of (Ipv6FragmentHeader_to_bytes h)).
Proof. exact frag_no_bleed. Qed.
Print Assumptions C15_frag_no_bleed.

Theorem C15_frag_roundtrip : forall h, frag_ok h ->
  Ipv6FragmentHeader_from_slice (Ipv6FragmentHeader_to_bytes h) = Val h /\
  Ipv6FragmentHeader_read (Ipv6FragmentHeader_to_bytes h) = Val h.
Proof. exact frag_roundtrip. Qed.
Print Assumptions C15_frag_roundtrip.

(* MACsec *)
Theorem C15_macsec_layout : forall h, macsec_ok h ->
  bits_of (MacsecHeader_to_bytes h) = layout_bits (macsec_spec_layout h).
Proof. exact macsec_enc_layout. Qed.
Print Assumptions C15_macsec_layout.

Theorem C15_macsec_no_bleed : forall f h v, macsec_settable f = true -> macsec_ok h ->
  wfits (macsec_range f) v ->
  agree_outside (fst (macsec_range f)) (snd (macsec_range f))
    (bits_of (MacsecHeader_to_bytes (macsec_set f h v))) (bits_of (MacsecHeader_to_bytes h)).
Proof. exact macsec_no_bleed. Qed.
Print Assumptions C15_macsec_no_bleed.

Theorem C15_macsec_ptype_no_bleed : forall h p, macsec_ok h ->
  is_unmodified (ms_ptype h) = false -> is_unmodified p = false ->
  agree_outside 4 2
    (bits_of (MacsecHeader_to_bytes (macsec_set_ptype h p))) (bits_of (MacsecHeader_to_bytes h)).
Proof. exact macsec_ptype_no_bleed. Qed.
Print Assumptions C15_macsec_ptype_no_bleed.

(* the decoder gives the header back, except for the one combination it rejects *)
Theorem C15_macsec_roundtrip : forall h, macsec_ok h ->
  MacsecHeader_from_slice (MacsecHeader_to_bytes h)
  = (if macsec_decodable h then Val h else Fail ErrContent).
Proof. exact macsec_roundtrip. Qed.
Print Assumptions C15_macsec_roundtrip.

(* IGMPv3 query: Resv / S / QRV written through set_flags / set_s_flag / set_qrv *)
Theorem C15_igmp_layout : forall t ck, query_ok t ck ->
  bits_of (IgmpQuery_to_bytes t ck) = layout_bits (query_spec_layout t ck).
Proof. exact query_enc_layout. Qed.
Print Assumptions C15_igmp_layout.

Theorem C15_igmp_no_bleed : forall f t ck v, query_ok t ck -> wfits (igmp_range f) v ->
  agree_outside (fst (igmp_range f)) (snd (igmp_range f))
    (bits_of (IgmpQuery_to_bytes (query_set f t v) ck)) (bits_of (IgmpQuery_to_bytes t ck))
  /\ query_get f (query_set f t v) = v
  /\ forall g, g <> f -> query_get g (query_set f t v) = query_get g t.
Proof. exact query_no_bleed. Qed.
Print Assumptions C15_igmp_no_bleed.

(* the setters on every raw byte and every u8 argument (out-of-range arguments are truncated) *)
Theorem C15_igmp_setters : forall raw v, raw < 256 -> v < 256 ->
  (let r := Query_set_flags raw v in
   r < 256 /\ r / 16 = v mod 16 /\ (r / 8) mod 2 = (raw / 8) mod 2 /\ r mod 8 = raw mod 8) /\
  (forall b, let r := Query_set_s_flag raw b in
   r < 256 /\ r / 16 = raw / 16 /\ (r / 8) mod 2 = b2n b /\ r mod 8 = raw mod 8) /\
  (let r := Query_set_qrv raw v in
   r < 256 /\ r / 16 = raw / 16 /\ (r / 8) mod 2 = (raw / 8) mod 2 /\ r mod 8 = v mod 8).
Proof. exact query_setters. Qed.
Print Assumptions C15_igmp_setters.

Theorem C15_igmp_roundtrip : forall t ck, query_ok t ck ->
  IgmpQuery_from_slice (IgmpQuery_to_bytes t ck) = Val (t, ck).
Proof. exact query_roundtrip. Qed.
Print Assumptions C15_igmp_roundtrip.

(* ---- 4. decoding after a field change: the new value, the others unchanged ---- *)
(* (consequence of the round trips; stated in the form the property is phrased) *)

Theorem C15_vlan_set_get : forall f h v, vlan_ok h -> wfits (vlan_range f) v ->
  exists d, SingleVlanHeader_from_slice (SingleVlanHeader_to_bytes (vlan_set f h v)) = Val d /\
    vlan_get f d = v /\ forall g, g <> f -> vlan_get g d = vlan_get g h.
Proof. exact vlan_set_get. Qed.
Print Assumptions C15_vlan_set_get.

Theorem C15_ipv4_set_get : forall f h v, ipv4_ok h -> wfits (ipv4_range f) v ->
  exists d, Ipv4Header_from_slice (Ipv4Header_to_bytes (ipv4_set f h v)) = Val d /\
    ipv4_get f d = v /\ forall g, g <> f -> ipv4_get g d = ipv4_get g h.
Proof. exact ipv4_set_get. Qed.
Print Assumptions C15_ipv4_set_get.

Theorem C15_ipv6_set_get : forall f h v, ipv6_ok h -> wfits (ipv6_range f) v ->
  exists d, Ipv6Header_from_slice (Ipv6Header_to_bytes (ipv6_set f h v)) = Val d /\
    ipv6_get f d = v /\ forall g, g <> f -> ipv6_get g d = ipv6_get g h.
Proof. exact ipv6_set_get. Qed.
Print Assumptions C15_ipv6_set_get.

Theorem C15_frag_set_get : forall f h v, frag_ok h -> wfits (frag_range f) v ->
  exists d, Ipv6FragmentHeader_from_slice (Ipv6FragmentHeader_to_bytes (frag_set f h v)) = Val d /\
    frag_get f d = v /\ forall g, g <> f -> frag_get g d = frag_get g h.
Proof. exact frag_set_get. Qed.
Print Assumptions C15_frag_set_get.

Theorem C15_macsec_set_get : forall f h v, macsec_settable f = true -> macsec_ok h ->
  wfits (macsec_range f) v -> macsec_decodable (macsec_set f h v) = true ->
  exists d, MacsecHeader_from_slice (MacsecHeader_to_bytes (macsec_set f h v)) = Val d /\
    macsec_get f d = v /\ forall g, g <> f -> macsec_get g d = macsec_get g h.
Proof. exact macsec_set_get. Qed.
Print Assumptions C15_macsec_set_get.

(* ---- non-vacuity ------------------------------------------------------- *)

Example C15_ex_vlan :
  let h := mkVlan 5 true 2748 34525 in
  vlan_ok h /\ SingleVlanHeader_to_bytes h = [186; 188; 134; 221] /\
  wfits (vlan_range VlanVID) 4095 /\
  SingleVlanHeader_to_bytes (vlan_set VlanVID h 4095) = [191; 255; 134; 221].
Proof. cbv zeta. split; [repeat split; discriminate|]. vm_compute. repeat split. Qed.

Example C15_ex_ipv4 :
  let h := mkIpv4 46 3 1500 4660 true false 8191 64 6 0 [10; 0; 0; 1] [10; 0; 0; 2] [1; 1; 1; 0] in
  ipv4_ok h /\ firstn 8 (Ipv4Header_to_bytes h) = [70; 187; 5; 220; 18; 52; 95; 255].
Proof.
  cbv zeta. split; [|vm_compute; reflexivity].
  (* `split` closes the strict bounds and the lengths; the `<=` bounds and the byte lists are left *)
  repeat split; try discriminate; apply bytes_okb_spec; reflexivity.
Qed.

Example C15_ex_ipv6 :
  let h := mkIpv6 255 1048575 0 0 0 (repeat 0 16) (repeat 0 16) in
  ipv6_ok h /\ firstn 4 (Ipv6Header_to_bytes h) = [111; 255; 255; 255] /\
  firstn 4 (Ipv6Header_to_bytes (ipv6_set V6FlowLabel h 0)) = [111; 240; 0; 0] /\
  firstn 4 (Ipv6Header_to_bytes (ipv6_set V6Dscp h 0)) = [96; 63; 255; 255].
Proof.
  cbv zeta. split; [repeat split; try discriminate; apply bytes_okb_spec; reflexivity|].
  vm_compute. repeat split.
Qed.

Example C15_ex_frag :
  let h := mkFrag 17 8191 true 305419896 in
  frag_ok h /\ Ipv6FragmentHeader_to_bytes h = [17; 0; 255; 249; 18; 52; 86; 120].
Proof. cbv zeta. split; [repeat split; discriminate|vm_compute; reflexivity]. Qed.

Example C15_ex_macsec :
  let h := mkMacsec (Unmodified 2048) true true 3 63 1 (Some 72623859790382856) in
  macsec_ok h /\ macsec_decodable h = true /\
  MacsecHeader_to_bytes h = [115; 63; 0; 0; 0; 1; 1; 2; 3; 4; 5; 6; 7; 8; 8; 0] /\
  (* the rejected combination exists *)
  macsec_decodable (macsec_set MsSL h 1) = false.
Proof. cbv zeta. split; [repeat split; discriminate|]. vm_compute. repeat split. Qed.

Example C15_ex_igmp :
  Query_set_qrv 255 0 = 248 /\ Query_set_s_flag 255 false = 247 /\ Query_set_flags 255 0 = 15 /\
  Query_set_flags 0 255 = 240.
Proof. vm_compute. repeat split. Qed.

Example C15_ex_types :
  VlanId_try_new 4095 = TOk 4095 /\ VlanId_try_new 4096 = TErr 4096 4095 /\
  Ipv6FlowLabel_try_new 1048576 = TErr 1048576 1048575 /\ IpEcn_try_new 4 = Val (TErr 4 3) /\
  IpEcn_new_unchecked 4 = Fail UBRange.
Proof. vm_compute. repeat split. Qed.

(* The struct decoders: `X::from_slice` (= `XSlice::from_slice(s)?.to_header()`)
   on ARBITRARY bytes never hands an out-of-range value to a `new_unchecked` and every bounded
   field of a returned header is in range.  So far stated for the single slice accessors,
   Ipv4Header::read, Ipv6Header::read and SingleVlanHeader::from_bytes only.  `no_ub r P` :=
   r <> Fail UBRange /\ forall a, r = Val a -> P a  (rejections ErrLen / ErrContent and the
   out-of-slice marker OOB -- whose absence is C01's clause -- make it hold trivially; the
   examples below are accepted inputs with every bounded field at its maximum).
   Lemmas: BitFields/FromSliceRange.v (composition of the accessor lemmas along to_header). *)
From EP Require Import BitFields.FromSliceRange.

Theorem C15_dec_from_slice_vlan : forall s, bytes_ok s ->
  no_ub (SingleVlanHeader_from_slice s) vlan_in_range /\ no_ub (SingleVlanSlice_decode s) vlan_in_range.
Proof. exact vlan_struct_decoders_in_range. Qed.
Print Assumptions C15_dec_from_slice_vlan.

Theorem C15_dec_from_slice_ipv4 : forall s, bytes_ok s -> no_ub (Ipv4Header_from_slice s) v4_in_range.
Proof. exact Ipv4Header_from_slice_in_range. Qed.
Print Assumptions C15_dec_from_slice_ipv4.

Theorem C15_dec_from_slice_ipv6 : forall s, bytes_ok s -> no_ub (Ipv6Header_from_slice s) v6_in_range.
Proof. exact Ipv6Header_from_slice_in_range. Qed.
Print Assumptions C15_dec_from_slice_ipv6.

(* frag_in_range h := fr_fragment_offset h <= IpFragOffset_MAX_U16 *)
Theorem C15_dec_from_slice_frag : forall s, bytes_ok s -> no_ub (Ipv6FragmentHeader_from_slice s) frag_in_range.
Proof. exact Ipv6FragmentHeader_from_slice_in_range. Qed.
Print Assumptions C15_dec_from_slice_frag.

Theorem C15_dec_read_frag : forall reader, bytes_ok reader -> no_ub (Ipv6FragmentHeader_read reader) frag_in_range.
Proof. exact Ipv6FragmentHeader_read_in_range. Qed.
Print Assumptions C15_dec_read_frag.

(* macsec_in_range h := ms_an h <= MacsecAn_MAX_U8 /\ ms_short_len h <= MacsecShortLen_MAX_U8 *)
Theorem C15_dec_from_slice_macsec : forall s, bytes_ok s -> no_ub (MacsecHeader_from_slice s) macsec_in_range.
Proof. exact MacsecHeader_from_slice_in_range. Qed.
Print Assumptions C15_dec_from_slice_macsec.

(* IgmpHeader::from_slice, IGMPv3 query arm: the header stores octet 8 raw; the stored octet is an
   octet and the QRV getter on it is in range.
   query_in_range (h, checksum) := q_raw_byte_8 h < 256 /\ no_ub (Query_qrv (q_raw_byte_8 h)) (fun v => v <= Qrv_MAX_U8) *)
Theorem C15_dec_from_slice_igmp : forall s, bytes_ok s -> no_ub (IgmpQuery_from_slice s) query_in_range.
Proof. exact IgmpQuery_from_slice_in_range. Qed.
Print Assumptions C15_dec_from_slice_igmp.

Check (eq_refl : frag_in_range = fun h => fr_fragment_offset h <= IpFragOffset_MAX_U16).
Check (eq_refl : macsec_in_range = fun h => ms_an h <= MacsecAn_MAX_U8 /\ ms_short_len h <= MacsecShortLen_MAX_U8).
Check (eq_refl : query_in_range = fun r => q_raw_byte_8 (fst r) < 256 /\
                   no_ub (Query_qrv (q_raw_byte_8 (fst r))) (fun v => v <= Qrv_MAX_U8)).

(* non-vacuity: ACCEPTED inputs whose bit fields are all ones: every bounded field at its maximum *)
Example C15_ex_from_slice_accept :
  SingleVlanHeader_from_slice [255; 255; 8; 0; 9] = Val (mkVlan 7 true 4095 2048) /\
  (exists h, Ipv4Header_from_slice ([70; 255; 0; 24; 0; 1; 255; 255; 64; 6; 0; 0; 10; 0; 0; 1; 10; 0; 0; 2; 1; 1; 1; 0; 9]) = Val h /\
     v4_dscp h = 63 /\ v4_ecn h = 3 /\ v4_fragment_offset h = 8191 /\ v4_options h = [1; 1; 1; 0]) /\
  (exists h, Ipv6Header_from_slice (111 :: 255 :: 255 :: 255 :: repeat 0 36) = Val h /\
     v6_traffic_class h = 255 /\ v6_flow_label h = 1048575) /\
  Ipv6FragmentHeader_from_slice [17; 0; 255; 249; 18; 52; 86; 120; 9] = Val (mkFrag 17 8191 true 305419896) /\
  Ipv6FragmentHeader_read [17; 0; 255; 249; 18; 52; 86; 120; 9] = Val (mkFrag 17 8191 true 305419896) /\
  MacsecHeader_from_slice [115; 63; 0; 0; 0; 1; 1; 2; 3; 4; 5; 6; 7; 8; 8; 0; 9]
    = Val (mkMacsec (Unmodified 2048) true true 3 63 1 (Some 72623859790382856)) /\
  IgmpQuery_from_slice [17; 100; 0; 0; 224; 0; 0; 1; 255; 125; 0; 1; 10; 0; 0; 1]
    = Val (mkQuery 100 [224; 0; 0; 1] 255 125 1, 0) /\
  Query_qrv 255 = Val 7.
Proof. vm_compute. repeat split. all: eexists; repeat split. Qed.
