(* Props/C10.v -- property C10: PacketBuilder emits consistent, parseable packets of
   the announced size.  Each theorem is the named lemma of the
   proof files; the Examples are test vectors checked by evaluation.

   Model : Builder/Model.v   (final_write_with_net as `build_run`/`build`, final_size;
           Ipv4Header / TcpHeader encoders of C08, extension chains of C12, checksum
           call sequences of C09, SingleVlanHeader / Ipv6Header encoders of C15)
   Spec  : Builder/Spec.v    (layout offsets, pseudo headers, `verifies`, `spec_outcome`,
           `cfg_wf` = type invariants of the crate's structs + builder typestate)
   All theorems hold for every well-formed configuration (all header field values,
   all options / extension headers, both host endiannesses) and every payload.

   Sinks: `build` is what reaches an infallible sink.  That write(io::Write), write_to_vec and
   write_to_slice deliver these bytes / this verdict is C10_sink_bridge + C10_three_sinks (last
   part of this file): `bcfg_of` instantiates the abstract part encodings of C16's write program
   (IoFault/Model.v) with the encodings of this model, the program is shown to write exactly
   `build_run`'s bytes with its verdict (error outcomes included), and C16_builder_space /
   C16_builder_write_fault are instantiated with it; the correspondence run additionally compares
   all three sinks of the real crate on every case.

   Beyond layout and size:
     - all transport checksums (TCP incl. options, ICMPv4, ICMPv6, UDP) verify and equal the
       RFC 1071 value with the field zeroed:              C10_checksums_verify, C10_transport_rfc_layout
     - ether type / protocol / next-header bytes of link, VLAN, IP and extension headers:
                                                          C10_next_protocol_fields
     - full wire parse-back, every family, extension headers included (view expected_x of
       Builder/SpecX.v; the statement with `parse_pre` / `expected` is the corollary
       C10_parse_back_no_exts):                           C10_parse_back, C10_parse_back_ether_type
     - the values behind the windows:                     C10_layers_as_configured,
       C10_parse_back_ipv4_header_partial, C10_parse_back_tcp_partial (C08 decoders)
   Last two sections of this file:
     - the transport step of the model covers EVERY Icmpv4Type / Icmpv6Type variant (composition of
       the C08 serialisers Roundtrip/Icmp4.v, Icmp6.v with the C09 checksum models); all theorems
       above therefore quantify over every typed kind (20-byte timestamp headers included), and
       C10_icmp4_value_back / C10_icmp6_value_back add: the crate's decoders (C08 models) and the
       RFC-table decoders of C17 return the configured type, all its fields and the payload;
     - the cases excluded by `payload_admitted` are theorems: C10_parse_back_upto_ip (no
       hypothesis), C10_parse_back_upto_transport (chain_ok), C10_timestamp_wrong_size_rejected
       (the decoder's exact answer, for ANY wrong size), and C10_parse_back_refuted_* give one
       witness per excluded number and four timestamp witnesses for which the full parse-back
       equation FAILS (the exclusions are necessary).
   Last part of this file:
     - C10_build_bytes_ok, C10_crate_parse_back(_ether_type), C10_crate_never_bug: the MODEL OF THE
       CRATE'S SLICER (SlicedPacket::from_ethernet / from_linux_sll / from_ip / from_ether_type,
       Parse/Cursor.v) returns Ok with the view expected_x on the built bytes (composition with C03);
     - C10_sink_bridge, C10_three_sinks, C10_three_sinks_ok, C10_model_write_to_slice: the three sinks;
     - C10_link_values_back: link / VLAN / IPv6 / ARP / UDP header VALUES through the C08 decoders
       (the conjuncts of C10_layers_as_configured compare with the model's own encoders);
     - C10_icmp_wf_gap, C10_icmp_typed_pairs, C10_icmp4/6_value_back_cfg: the ICMP value theorems
       with the one hypothesis cfg_wf does not contain made explicit.
   Pseudo headers: `ck_pseudo` uses the source / destination fields of the emitted IP header (what a
   receiver sees; the crate does not consult a configured IPv6 Routing header, RFC 8200 8.1). *)
From EP Require Import Base.Bytes Checksum.Spec Checksum.Model.
From EP Require Roundtrip.Common Roundtrip.Tcp Roundtrip.Ipv4 ExtChain.Spec ExtChain.Model BitFields.Model.
From EP Require Import Parse.Types Parse.View Parse.WireSpec.
From EP Require Import Builder.Model Builder.Spec Builder.Proofs Builder.ProofsCk.
From EP Require Checksum.ProtoTypes Checksum.ProtoSpec.
From EP Require Import Builder.SpecX Builder.ProofsTr Builder.ProofsNx Builder.ProofsWire Builder.ProofsPb
  Builder.ProofsVal Builder.ProofsEx.
From EP Require ExtChain.View.
From EP Require CtlMsg.Spec CtlMsg.Model Roundtrip.Icmp4 Roundtrip.Icmp6.
Local Open Scope N_scope.

(* ---- outcome: encodable configurations give exactly size() bytes, the others the documented error *)
Theorem C10_outcome : forall e c p, cfg_wf c = true ->
  match spec_outcome c (len p) with
  | OOk => exists bs, build e c p = BOk bs /\ len bs = final_size c (len p)
  | OErr er => build e c p = BErr er
  end.
Proof. exact build_outcome. Qed.
Print Assumptions C10_outcome.

Theorem C10_size : forall e c p bs, cfg_wf c = true -> build e c p = BOk bs -> len bs = final_size c (len p).
Proof. exact build_size. Qed.
Print Assumptions C10_size.

(* no unwrap / array access / u16 underflow / to_bytes of the model fails *)
Theorem C10_never_panics : forall e c p s, cfg_wf c = true -> build e c p <> BPanic s.
Proof. exact build_never_panics. Qed.
Print Assumptions C10_never_panics.

(* Err <-> the configuration cannot be encoded; the inner range checks of
   UdpHeader/TcpHeader/Icmpv6Type::calc_checksum_* never fire (no such error in spec_outcome) *)
Theorem C10_errors : forall e c p er, cfg_wf c = true ->
  (build e c p = BErr er <-> spec_outcome c (len p) = OErr er).
Proof. exact build_error_iff. Qed.
Print Assumptions C10_errors.

(* ... which is: payload too large for the IP length field, ICMPv6 in IPv4, or an
   extension chain not covered by the walk -- the last only for write(ip_number, ..)
   with an ip number that is itself an extension header number *)
Theorem C10_errors_classified : forall c plen er, cfg_wf c = true -> spec_outcome c plen = OErr er ->
  (exists vt, er = EPayloadLen (ip_payload_len c plen) (ip_payload_max c) vt /\
              ip_payload_max c < ip_payload_len c plen) \/
  (er = EIcmpv6InIpv4 /\ is_icmpv6 (c_transport c) = true /\ exists h x, c_net c = NtIpv4 h x) \/
  (exists w k, er = EIpv6Exts w /\ c_transport c = TrNone k /\ ExtChain.Spec.is_ext_number k = true).
Proof. exact errors_classified. Qed.
Print Assumptions C10_errors_classified.

Theorem C10_no_walk_error_with_transport : forall c plen w, cfg_wf c = true ->
  (forall k, c_transport c <> TrNone k) ->
  spec_outcome c plen <> OErr (EIpv6Exts w) /\ spec_outcome c plen <> OErr (EIpv4Exts w).
Proof. exact no_walk_error_with_transport. Qed.
Print Assumptions C10_no_walk_error_with_transport.

(* ---- consistency of the derived fields *)
(* IPv4 (with or without options / authentication header): at off_net stands the
   to_bytes of the configured header (= RFC 791 layout by C08_Ipv4_spec) with total
   length = the actual length (< 2^16: not truncated), protocol = what follows, and
   a header checksum that verifies; all other fields as supplied *)
Theorem C10_consistent_ipv4 : forall e c p bs h x,
  cfg_wf c = true -> build e c p = BOk bs -> c_net c = NtIpv4 h x ->
  let hf := v4_final e h x (c_transport c) (len p) in
  Ipv4.wf_ip4 hf = true /\
  Ipv4.ip4_to_bytes hf = Some (take (Ipv4.ip4_header_len h) (drop (off_net c) bs)) /\
  verifies (take (Ipv4.ip4_header_len h) (drop (off_net c) bs)) /\
  Ipv4.i4_total_len hf = len bs - off_net c /\ off_net c + Ipv4.ip4_header_len h <= len bs /\
  len bs - off_net c < 65536 /\
  Ipv4.i4_protocol hf = snd (ExtChain.Model.set_next_headers4 x (tr_ip_number (c_transport c))) /\
  Ipv4.i4_source hf = Ipv4.i4_source h /\ Ipv4.i4_destination hf = Ipv4.i4_destination h /\
  Ipv4.i4_time_to_live hf = Ipv4.i4_time_to_live h /\ Ipv4.i4_identification hf = Ipv4.i4_identification h /\
  Ipv4.i4_dscp hf = Ipv4.i4_dscp h /\ Ipv4.i4_ecn hf = Ipv4.i4_ecn h /\ Ipv4.i4_options hf = Ipv4.i4_options h /\
  Ipv4.i4_dont_fragment hf = Ipv4.i4_dont_fragment h /\ Ipv4.i4_more_fragments hf = Ipv4.i4_more_fragments h /\
  Ipv4.i4_fragment_offset hf = Ipv4.i4_fragment_offset h.
Proof. exact ipv4_consistent. Qed.
Print Assumptions C10_consistent_ipv4.

Theorem C10_consistent_ipv6 : forall e c p bs h x,
  cfg_wf c = true -> build e c p = BOk bs -> c_net c = NtIpv6 h x ->
  let hf := v6_final h x (c_transport c) (len p) in
  take 40 (drop (off_net c) bs) = BitFields.Model.Ipv6Header_to_bytes hf /\
  off_net c + 40 <= len bs /\
  BitFields.Model.v6_payload_length hf = len bs - off_net c - 40 /\ len bs - off_net c - 40 < 65536 /\
  BitFields.Model.v6_next_header hf = snd (ExtChain.Model.set_next_headers x (tr_ip_number (c_transport c))) /\
  BitFields.Model.v6_source hf = BitFields.Model.v6_source h /\
  BitFields.Model.v6_destination hf = BitFields.Model.v6_destination h /\
  BitFields.Model.v6_hop_limit hf = BitFields.Model.v6_hop_limit h /\
  BitFields.Model.v6_traffic_class hf = BitFields.Model.v6_traffic_class h /\
  BitFields.Model.v6_flow_label hf = BitFields.Model.v6_flow_label h.
Proof. exact ipv6_consistent. Qed.
Print Assumptions C10_consistent_ipv6.

(* UDP (any link / VLAN / options / extension headers in front): ports as supplied,
   length field = 8 + payload length (< 2^16: the `as u16` never wraps on success),
   checksum never 0 and verifying with the pseudo header of RFC 768 / RFC 8200 8.1 *)
Theorem C10_consistent_udp : forall e c p bs sp dp,
  cfg_wf c = true -> bytes_ok p -> build e c p = BOk bs -> c_transport c = TrUdp sp dp ->
  match c_net c with
  | NtArp _ => True
  | NtIpv4 h _ =>
      8 + len p < 65536 /\ exists ck, ck <> 0 /\ ck < 65536 /\
        drop (off_transport c) bs = udp_to_bytes sp dp (8 + len p) ck ++ p /\
        verifies (pseudo4 (Ipv4.i4_source h) (Ipv4.i4_destination h) 17 (8 + len p) ++ drop (off_transport c) bs)
  | NtIpv6 h _ =>
      8 + len p < 65536 /\ exists ck, ck <> 0 /\ ck < 65536 /\
        drop (off_transport c) bs = udp_to_bytes sp dp (8 + len p) ck ++ p /\
        verifies (pseudo6 (BitFields.Model.v6_source h) (BitFields.Model.v6_destination h) (8 + len p) 17
                  ++ drop (off_transport c) bs)
  end.
Proof. exact udp_consistent. Qed.
Print Assumptions C10_consistent_udp.

(* Ipv4Header::calc_header_checksum + to_bytes, for every well-formed header *)
Theorem C10_ipv4_header_checksum : forall e h, Ipv4.wf_ip4 h = true ->
  exists ck hb, Ipv4.ip4_calc_checksum e h = Some ck /\ ck < 65536 /\
    Ipv4.ip4_to_bytes (Ipv4.ip4_set_checksum h ck) = Some hb /\ folds_to_ffff hb = true.
Proof. exact ip4_header_verifies. Qed.
Print Assumptions C10_ipv4_header_checksum.

(* ---- parse-back, proved parts (C08 decoders on the built bytes) *)
Theorem C10_parse_back_ipv4_header_partial : forall e c p bs h x,
  cfg_wf c = true -> build e c p = BOk bs -> c_net c = NtIpv4 h x ->
  Ipv4.ip4_from_slice (drop (off_net c) bs)
  = Roundtrip.Common.Ok (Ipv4.ip4_norm (v4_final e h x (c_transport c) (len p)),
                         drop (off_net c + Ipv4.ip4_header_len h) bs).
Proof. exact ipv4_header_decodes. Qed.
Print Assumptions C10_parse_back_ipv4_header_partial.

Theorem C10_parse_back_tcp_partial : forall e c p bs t,
  cfg_wf c = true -> build e c p = BOk bs -> c_transport c = TrTcp t ->
  match c_net c with
  | NtArp _ => True
  | _ => exists ck, ck < 65536 /\
           Tcp.from_slice (drop (off_transport c) bs)
           = Roundtrip.Common.Ok (Tcp.norm (tcp_set_checksum t ck), p)
  end.
Proof. exact tcp_decodes. Qed.
Print Assumptions C10_parse_back_tcp_partial.

(* ---- all transport checksums verify (UDP, TCP, ICMPv4, ICMPv6 -- the modelled kinds) ----
   seg = the bytes from the transport header to the end of the packet; ck_pseudo = the
   pseudo header of RFC 768 / 9293 3.1 / 8200 8.1 / 4443 2.3 built from the configured
   addresses and the ACTUAL length of seg ([] for ICMPv4; None = no checksum: raw
   payload, ARP, or the refused ICMPv6-in-IPv4).  The receiver's RFC 1071 sum over pseudo
   header ++ segment folds to 0xffff, and the 16 bit field at the RFC's offset equals the
   RFC value over the same bytes with the field zeroed (UDP: 0 transmitted as 0xffff).
   Corollary of C09_update_checksum_ipv4/_ipv6 (Checksum/ProtoProofs.v) after showing that
   the builder calls update_checksum on exactly the header it serialises
   (tr_ipv4_is_update / tr_ipv6_is_update, TCP options included) and the payload it appends. *)
Theorem C10_checksums_verify : forall e c p bs,
  cfg_wf c = true -> bytes_ok p -> build e c p = BOk bs ->
  let seg := drop (off_transport c) bs in
  let k := ck_field_off (c_transport c) in
  match ck_pseudo c (len seg) with
  | None => True
  | Some ph =>
      len seg = tr_header_len (c_transport c) + len p /\ off_transport c + len seg = len bs /\
      k + 2 <= tr_header_len (c_transport c) /\
      verifies (ph ++ seg) /\
      W bs (off_transport c + k) = ck_value (c_transport c) (rfc1071 (ph ++ zero16_at k seg))
  end.
Proof. exact checksums_verify. Qed.
Print Assumptions C10_checksums_verify.

(* the transport header in the packet is the RFC layout (Checksum/ProtoSpec.v: udp_wire,
   tcp_wire, icmp4_wire, icmp6_wire) of the configured header, followed by exactly the payload *)
Theorem C10_transport_rfc_layout : forall e c p bs, cfg_wf c = true -> build e c p = BOk bs ->
  match c_net c with
  | NtArp _ => True
  | _ =>
    match th_of (c_transport c) (8 + len p) with
    | None => drop (off_transport c) bs = p
    | Some th => exists ck, ck < 65536 /\ drop (off_transport c) bs = th_wire th ck ++ p
    end
  end.
Proof. exact transport_is_rfc_layout. Qed.
Print Assumptions C10_transport_rfc_layout.

(* ---- ether types and protocol numbers name the layer that follows ----
   Ethernet II / Linux SLL protocol field, every VLAN tag, the IPv4 protocol / IPv6 next
   header field and the first byte of every extension header (chain_at walks the
   configured headers in wire order at their computed offsets).  The chain part needs
   chain_pre: for write(ip_number, ..) over IPv6 the ip_number must not itself be an
   extension header number (C12_link_write_order); for that case C10_consistent_ipv6
   still gives the next header field of the IPv6 header. *)
Theorem C10_next_protocol_fields : forall e c p bs, cfg_wf c = true -> build e c p = BOk bs ->
  match c_link c with
  | LkNone => True
  | LkEthernet2 _ _ => W bs 12 = link_announces c
  | LkLinuxSll pt _ _ => W bs 0 = pt /\ W bs 2 = 1 /\ W bs 14 = net_ether_type (c_net c) /\ c_vlan c = VlNone
  end /\
  match c_vlan c with
  | VlNone => True
  | VlSingle _ => W bs (off_vlan c + 2) = net_ether_type (c_net c)
  | VlDouble _ _ => W bs (off_vlan c + 2) = 33024 /\ W bs (off_vlan c + 6) = net_ether_type (c_net c)
  end /\
  match c_net c with
  | NtArp _ => True
  | _ => chain_pre c = true ->
         chain_at (B bs) (off_exts c) (B bs (ip_next_field_off c)) (ext_layout c) (tr_ip_number (c_transport c))
  end.
Proof. exact next_protocol_fields. Qed.
Print Assumptions C10_next_protocol_fields.

(* ---- parse-back: the wire reference decoder of C03 accepts the built bytes ----
   For EVERY well-formed configuration -- link none / Ethernet II / Linux SLL x 0-2 VLAN tags x
   IPv4 (any options, authentication header) / IPv6 (all 48 extension shapes) / ARP x
   UDP / TCP (+options) / ICMPv4 / ICMPv6 / raw -- whose payload the message type admits,
   the entry point matching the link layer (wire_entry: wire_ethernet / wire_linux_sll /
   wire_from_ip) returns VOk of exactly the configured layers at their computed offsets,
   the payload window being exactly the supplied payload (expected_x, Builder/SpecX.v).
   payload_admitted (Builder/Spec.v) excludes precisely:
     - write(ip_number, ..) with ip_number in {1, 6, 17, 58, 51} (the decoder would read a
       transport / authentication header out of the raw payload) and, over IPv6, in
       {0, 43, 44, 60} (an extension header number: chain not determined by the configuration);
     - ICMPv4 type 13 / 14 code 0 (timestamp messages, exactly 20 bytes) with a payload
       other than 12 bytes, unless the IPv4 header fragments the payload.
   Fragmenting configurations (IPv4 more_fragments / fragment_offset != 0, IPv6 fragment
   header with M or an offset) are INCLUDED: the decoder stops before the transport layer,
   expected_x lists link, VLAN, the IP header, the extension headers and the IP payload
   window (= transport header ++ payload) with vip_frag = true and no transport layer. *)
Theorem C10_parse_back : forall e c p bs,
  cfg_wf c = true -> payload_admitted c (len p) = true -> build e c p = BOk bs ->
  wire_entry c bs = VOk (expected_x c (len p)).
Proof. exact parse_back. Qed.
Print Assumptions C10_parse_back.

(* the view `expected` of Builder/Spec.v (no extension headers) is the special case *)
Theorem C10_parse_back_no_exts : forall e c p bs,
  cfg_wf c = true -> parse_pre c (len p) = true -> build e c p = BOk bs ->
  (match c_link c with
   | LkEthernet2 _ _ => wire_ethernet bs
   | LkLinuxSll _ _ _ => wire_linux_sll bs
   | LkNone => wire_from_ip bs
   end) = VOk (expected c (len p)).
Proof. exact parse_back_no_exts. Qed.
Print Assumptions C10_parse_back_no_exts.

(* a packet built without link layer, handed to the ether-type entry point *)
Theorem C10_parse_back_ether_type : forall e c p bs,
  cfg_wf c = true -> payload_admitted c (len p) = true -> build e c p = BOk bs -> c_link c = LkNone ->
  let x := expected_x c (len p) in
  wire_ether_type bs (net_ether_type (c_net c))
  = VOk (mkVPacket (Some (VEtherPayload (mkVEp (net_ether_type (c_net c)) LsSlice (0, len bs))))
                   (v_exts x) (v_net x) (v_transport x)).
Proof. exact parse_back_ether_type. Qed.
Print Assumptions C10_parse_back_ether_type.

(* ---- the values behind the windows of C10_parse_back ----
   link and VLAN headers are the encodings of the configured structs with the ether types
   set (link_bytes / vlan_bytes of Builder/Model.v: Ethernet2Header / LinuxSllHeader /
   SingleVlanHeader::to_bytes, the last one decoded back by C15_vlan_roundtrip); the
   extension area is the RFC 8200 / 4302 wire format of the configured headers in RFC
   order (C12 rfc_order_bytes) and the crate's Ipv6Extensions / Ipv4Extensions::from_slice
   (C12 models) returns the configured headers, the transport number and no rest; an ARP
   packet is ArpPacket::to_bytes; the bytes from off_payload on are exactly the payload.
   (IPv4 / IPv6 / transport headers: C10_consistent_ipv4, C10_consistent_ipv6,
   C10_parse_back_ipv4_header_partial, C10_transport_rfc_layout, C10_parse_back_tcp_partial.) *)
Theorem C10_layers_as_configured : forall e c p bs, cfg_wf c = true -> build e c p = BOk bs ->
  let n := tr_ip_number (c_transport c) in
  take (link_len c) bs = link_bytes c /\
  take (vlan_len c) (drop (off_vlan c) bs) = vlan_bytes c /\
  match c_net c with
  | NtIpv4 h x =>
      let s := ExtChain.Model.set_next_headers4 x n in
      take (ExtChain.Model.header_len4 x) (drop (off_exts c) bs) = ExtChain.View.rfc_order_bytes4 (fst s) /\
      (n <> 51 ->
       ExtChain.Model.from_slice4 (snd s) (take (ExtChain.Model.header_len4 x) (drop (off_exts c) bs))
       = ExtChain.Model.Ok (fst s, n, []))
  | NtIpv6 h x =>
      chain_pre c = true ->
      let s := ExtChain.Model.set_next_headers x n in
      take (ExtChain.Model.header_len x) (drop (off_exts c) bs) = ExtChain.View.rfc_order_bytes (fst s) /\
      ExtChain.Model.from_slice (snd s) (take (ExtChain.Model.header_len x) (drop (off_exts c) bs))
      = ExtChain.Model.Ok (fst s, n, [])
  | NtArp a => take (arp_packet_len a) (drop (off_net c) bs) = arp_to_bytes a
  end /\
  drop (off_payload c) bs = p /\ off_payload c + len p = len bs.
Proof. exact layers_as_configured. Qed.
Print Assumptions C10_layers_as_configured.

(* ==== every typed ICMP kind: the decoders return the configured message ====
   seg = the bytes from the transport header to the end of the packet.  For EVERY Icmpv4Type
   variant (Unknown, EchoReply, DestinationUnreachable with each of the 16 headers incl. the
   next-hop MTU, Redirect x 4 codes, EchoRequest, TimeExceeded x 2, ParameterProblem x 3,
   TimestampRequest, TimestampReply) over IPv4 and over IPv6, any link / VLAN / options /
   extension headers in front:
     Icmpv4Header::read      (C08 model)        = the configured type + stored checksum, rest = payload
     Icmpv4Header::from_slice (C08 model)       = the same
     CtlMsg.Spec.icmp4        (RFC 792 tables)  = (configured type, header_len, payload)
     Icmpv4Slice view         (C17 model)       = the same
   wf_icmp4_type (C08): field ranges of the Rust types, and a raw Unknown{type, code} does not
   name a typed kind (icmpv4_raw(8, 0, ..) is read as EchoRequest; Example C10_ex_raw_named).
   The ONE payload side condition: `header_len = 8 \/ p = []` -- TimestampRequest / TimestampReply
   are 20-byte messages, the slice decoders insist on exactly 20 bytes (read does not:
   the first conjunct has no side condition). *)
Theorem C10_icmp4_value_back : forall e c p bs t, cfg_wf c = true -> build e c p = BOk bs ->
  c_transport c = TrIcmpv4 t -> (forall a, c_net c <> NtArp a) ->
  Icmp4.wf_icmp4_type t = true ->
  exists ck, ck < 65536 /\
    let seg := drop (off_transport c) bs in
    let h := {| Icmp4.icmp4_type := t; Icmp4.icmp4_checksum := ck |} in
    Icmp4.icmp4_read seg = Roundtrip.Common.Ok (h, p) /\
    (Icmp4.icmp4_type_header_len t = 8 \/ p = [] ->
     Icmp4.icmp4_from_slice seg = Roundtrip.Common.Ok (h, p) /\
     CtlMsg.Spec.icmp4 seg = CtlMsg.Spec.Ok (t, Icmp4.icmp4_type_header_len t, p) /\
     CtlMsg.Model.Icmpv4Slice.view seg = CtlMsg.Spec.Ok (t, Icmp4.icmp4_type_header_len t, p)).
Proof. exact icmp4_value_back. Qed.
Print Assumptions C10_icmp4_value_back.

(* the other side of the side condition: a typed timestamp message with a non-empty payload
   is 20 + |p| bytes of type 13 / 14 code 0, which the typed view refuses *)
Theorem C10_icmp4_timestamp_payload_rejected : forall e c p bs t, cfg_wf c = true -> build e c p = BOk bs ->
  c_transport c = TrIcmpv4 t -> (forall a, c_net c <> NtArp a) ->
  Icmp4.icmp4_type_header_len t = 20 -> p <> [] ->
  let seg := drop (off_transport c) bs in
  len seg = 20 + len p /\
  CtlMsg.Model.Icmpv4Slice.view seg =
    CtlMsg.Spec.ErrLen (CtlMsg.Spec.mkLenError 20 (20 + len p) CtlMsg.Spec.LsSlice
      (if fst (icmp4_tc t) =? 13 then CtlMsg.Spec.LIcmpv4Timestamp else CtlMsg.Spec.LIcmpv4TimestampReply) 0) /\
  Icmp4.icmp4_from_slice seg = Roundtrip.Common.Err Roundtrip.Common.ELen.
Proof. exact icmp4_timestamp_payload_rejected. Qed.
Print Assumptions C10_icmp4_timestamp_payload_rejected.

(* EVERY Icmpv6Type variant (Unknown, DestinationUnreachable x 7, PacketTooBig, TimeExceeded x 2,
   ParameterProblem x 11 codes + pointer, EchoRequest / EchoReply, RouterSolicitation,
   RouterAdvertisement with M / O flags, NeighborSolicitation, NeighborAdvertisement with R / S / O,
   Redirect), every payload: no side condition *)
Theorem C10_icmp6_value_back : forall e c p bs t, cfg_wf c = true -> build e c p = BOk bs ->
  c_transport c = TrIcmpv6 t -> (forall a, c_net c <> NtArp a) ->
  Icmp6.wf_icmp6_type t = true ->
  exists ck, ck < 65536 /\
    let seg := drop (off_transport c) bs in
    let h := {| Icmp6.icmp6_type := t; Icmp6.icmp6_checksum := ck |} in
    Icmp6.icmp6_read seg = Roundtrip.Common.Ok (h, p) /\
    Icmp6.icmp6_from_slice seg = Roundtrip.Common.Ok (h, p) /\
    CtlMsg.Spec.icmp6 seg = CtlMsg.Spec.Ok (t, p) /\
    CtlMsg.Model.Icmpv6Slice.view seg = CtlMsg.Spec.Ok (t, p).
Proof. exact icmp6_value_back. Qed.
Print Assumptions C10_icmp6_value_back.

(* ==== what is guaranteed where C10_parse_back does not apply ====
   (size, no panic, length fields, IPv4 checksum, transport checksums, next-protocol bytes and
   C10_layers_as_configured have no payload hypothesis: they hold there anyway)

   For EVERY well-formed configuration that builds -- any ip number in write(ip_number, ..), any
   ICMP payload size: the link layer, every VLAN tag and the fixed IP header are accepted exactly
   as configured (link_view = the link / VLAN windows of expected_x), and the decoder continues
   with its extension-header / transport stage over exactly the rest of the packet. *)
Theorem C10_parse_back_upto_ip : forall e c p bs, cfg_wf c = true -> build e c p = BOk bs ->
  match c_net c with
  | NtIpv4 h _ =>
      wire_entry c bs = wire_ipv4_tail bs (link_view c (len bs)) (off_net c) (Ipv4.ip4_header_len h) (len bs)
  | NtIpv6 _ _ =>
      wire_entry c bs = wire_ipv6_tail bs (link_view c (len bs)) LsIpv6HeaderPayloadLen LsIpv6HeaderPayloadLen
                                       (off_net c) (len bs)
  | NtArp _ => wire_entry c bs = VOk (expected_x c (len p))
  end.
Proof. exact parse_back_upto_ip. Qed.
Print Assumptions C10_parse_back_upto_ip.

(* chain_ok: the announced number is not read as a further extension header (always true for
   udp / tcp / icmp; for write(n, ..): n <> 51 over IPv4, n not in {0, 43, 44, 51, 60} over IPv6).
   Then link, VLAN, IP header AND every configured extension header parse back as configured
   (upto_net = expected_x without transport layer: the IP payload window is
   (off_transport, header_len + |p|) = the emitted transport bytes), and the decoder's answer is
   that of its transport stage on those bytes.  This covers write(1 | 6 | 17 | 58, ..) -- the
   payload is then read as an ICMPv4 / TCP / UDP / ICMPv6 message -- and ICMPv4 timestamps of
   any size. *)
Theorem C10_parse_back_upto_transport : forall e c p bs,
  cfg_wf c = true -> build e c p = BOk bs -> chain_ok c = true ->
  match c_net c with
  | NtArp _ => True
  | _ =>
    off_transport c + tr_header_len (c_transport c) + len p = len bs /\
    wire_entry c bs =
      wire_transport bs (upto_net c (len p)) (tr_ip_number (c_transport c)) (is_fragmented_x c) (ip_len_src c)
                     (off_transport c) (len bs)
  end.
Proof. exact parse_back_upto_transport. Qed.
Print Assumptions C10_parse_back_upto_transport.

(* the decoder's answer for an ICMPv4 timestamp / timestamp reply message (typed variant, or raw
   type 13 / 14 code 0) whose size is not 20 bytes: a Len error `required 20`, with the actual
   message size, the IP length field as source, the timestamp layer and the transport offset *)
Theorem C10_timestamp_wrong_size_rejected : forall e c p bs t, cfg_wf c = true -> build e c p = BOk bs ->
  c_transport c = TrIcmpv4 t -> (forall a, c_net c <> NtArp a) ->
  is_fragmented_x c = false -> icmp4_admits t (len p) = false ->
  wire_entry c bs =
    VErr (ELen (mkLenError 20 (Icmp4.icmp4_type_header_len t + len p) (ip_len_src c) (ts_layer t)
                           (off_transport c))).
Proof. exact timestamp_wrong_size_rejected. Qed.
Print Assumptions C10_timestamp_wrong_size_rejected.

(* the exclusions of payload_admitted are necessary: for every excluded ip number (IPv4: 1, 6,
   17, 58, 51; IPv6: additionally 0, 43, 44, 60) and for timestamp messages of the wrong size there
   is a well-formed configuration that builds and whose packet the decoder does NOT read back as
   the configured view.  `refutes c p` = cfg_wf c /\ payload_admitted c |p| = false /\
   build LE c p = BOk bs /\ wire_entry c bs <> VOk (expected_x c |p|). *)
Theorem C10_parse_back_refuted_raw4 :
  Forall (fun n => refutes (wit_cfg4 (TrNone n)) wit_payload) [1; 6; 17; 58; 51].
Proof. exact parse_back_refuted_raw4. Qed.
Print Assumptions C10_parse_back_refuted_raw4.
Theorem C10_parse_back_refuted_raw6 :
  Forall (fun n => refutes (wit_cfg6 (TrNone n)) wit_payload) [1; 6; 17; 58; 51; 0; 43; 44; 60].
Proof. exact parse_back_refuted_raw6. Qed.
Print Assumptions C10_parse_back_refuted_raw6.
Theorem C10_parse_back_refuted_timestamp :
  refutes (wit_cfg4 (TrIcmpv4 (CtlMsg.Spec.V4TimestampRequest wit_ts))) wit_payload /\
  refutes (wit_cfg4 (TrIcmpv4 (CtlMsg.Spec.V4TimestampReply wit_ts))) [9] /\
  refutes (wit_cfg4 (TrIcmpv4 (CtlMsg.Spec.V4Unknown 13 0 0 1 0 2))) wit_payload /\
  refutes (wit_cfg6 (TrIcmpv4 (CtlMsg.Spec.V4Unknown 14 0 0 1 0 2))) (repeat 7 13).
Proof. exact parse_back_refuted_timestamp. Qed.
Print Assumptions C10_parse_back_refuted_timestamp.

(* statement pinning *)
Check (C10_size : forall e c p bs, cfg_wf c = true -> build e c p = BOk bs -> len bs = final_size c (len p)).
Check (C10_never_panics : forall e c p s, cfg_wf c = true -> build e c p <> BPanic s).
Check (C10_errors : forall e c p er, cfg_wf c = true ->
  (build e c p = BErr er <-> spec_outcome c (len p) = OErr er)).

Check (C10_parse_back : forall e c p bs,
  cfg_wf c = true -> payload_admitted c (len p) = true -> build e c p = BOk bs ->
  wire_entry c bs = VOk (expected_x c (len p))).
Check (C10_checksums_verify : forall e c p bs,
  cfg_wf c = true -> bytes_ok p -> build e c p = BOk bs ->
  let seg := drop (off_transport c) bs in
  let k := ck_field_off (c_transport c) in
  match ck_pseudo c (len seg) with
  | None => True
  | Some ph =>
      len seg = tr_header_len (c_transport c) + len p /\ off_transport c + len seg = len bs /\
      k + 2 <= tr_header_len (c_transport c) /\
      verifies (ph ++ seg) /\
      W bs (off_transport c + k) = ck_value (c_transport c) (rfc1071 (ph ++ zero16_at k seg))
  end).

(* ---- non-vacuity: the crate's documentation example (ethernet2 / ipv4 / udp, 8 byte payload),
   the same with a VLAN tag and ICMPv6 (error), and a payload one byte too long *)
Definition ex_ip4 : Ipv4.Ipv4Header :=
  {| Ipv4.i4_dscp := 0; Ipv4.i4_ecn := 0; Ipv4.i4_total_len := 0; Ipv4.i4_identification := 0;
     Ipv4.i4_dont_fragment := true; Ipv4.i4_more_fragments := false; Ipv4.i4_fragment_offset := 0;
     Ipv4.i4_time_to_live := 20; Ipv4.i4_protocol := 255; Ipv4.i4_header_checksum := 0;
     Ipv4.i4_source := [192; 168; 1; 1]; Ipv4.i4_destination := [192; 168; 1; 2];
     Ipv4.i4_options := {| Ipv4.i4o_len := 0; Ipv4.i4o_buf := repeat 0 40 |} |}.
Definition ex_cfg : cfg :=
  mkCfg (LkEthernet2 [1; 2; 3; 4; 5; 6] [7; 8; 9; 10; 11; 12]) VlNone
        (NtIpv4 ex_ip4 (ExtChain.Model.mkExts4 None)) (TrUdp 21 1234).
Definition ex_payload : bytes := [1; 2; 3; 4; 5; 6; 7; 8].
Definition ex_bytes : bytes :=
  [7; 8; 9; 10; 11; 12; 1; 2; 3; 4; 5; 6; 8; 0;
   69; 0; 0; 36; 0; 0; 64; 0; 20; 17; 227; 117; 192; 168; 1; 1; 192; 168; 1; 2;
   0; 21; 4; 210; 0; 16; 103; 127; 1; 2; 3; 4; 5; 6; 7; 8].
Example C10_ex_wf : cfg_wf ex_cfg = true /\ parse_pre ex_cfg 8 = true /\ bytes_ok ex_payload.
Proof. split; [vm_compute; reflexivity|split; [vm_compute; reflexivity|]]. apply bytes_okb_spec. vm_compute. reflexivity. Qed.
Example C10_ex_build : build LE ex_cfg ex_payload = BOk ex_bytes /\ build BE ex_cfg ex_payload = BOk ex_bytes
  /\ final_size ex_cfg 8 = 50 /\ spec_outcome ex_cfg 8 = OOk.
Proof. vm_compute. repeat split. Qed.
(* the full parse-back statement holds on the example *)
Example C10_ex_parse_back : wire_ethernet ex_bytes = VOk (expected ex_cfg 8).
Proof. vm_compute. reflexivity. Qed.
Example C10_ex_verifies :
  verifies (take 20 (drop 14 ex_bytes)) /\
  verifies (pseudo4 [192; 168; 1; 1] [192; 168; 1; 2] 17 16 ++ drop 34 ex_bytes).
Proof. vm_compute. repeat split. Qed.
(* error outcomes *)
Definition ex_cfg_icmp6 : cfg :=
  mkCfg (c_link ex_cfg) (VlSingle (BitFields.Model.mkVlan 0 false 5 0)) (c_net ex_cfg) (TrIcmpv6 (CtlMsg.Spec.V6EchoRequest 1 2)).
Example C10_ex_icmpv6_in_ipv4 : cfg_wf ex_cfg_icmp6 = true /\
  build LE ex_cfg_icmp6 [1] = BErr EIcmpv6InIpv4 /\ spec_outcome ex_cfg_icmp6 1 = OErr EIcmpv6InIpv4 /\
  len (snd (build_run LE ex_cfg_icmp6 [1])) = 38.
Proof. vm_compute. repeat split. Qed.
Example C10_ex_too_long : spec_outcome ex_cfg 65508 = OErr (EPayloadLen 65516 65515 VtIpv4PayloadLength)
  /\ spec_outcome ex_cfg 65507 = OOk.
Proof. vm_compute. repeat split. Qed.

(* TCP with options over IPv6 behind two VLAN tags and a hop-by-hop + fragment header chain:
   the hypotheses of C10_checksums_verify / C10_next_protocol_fields are satisfiable, the
   statements are not vacuous (ck_pseudo = Some, chain of two headers) *)
Definition ex_tcp : Tcp.TcpHeader :=
  {| Tcp.source_port := 80; Tcp.destination_port := 40000; Tcp.sequence_number := 305419896;
     Tcp.acknowledgment_number := 2271560481; Tcp.ns := true; Tcp.fin := false; Tcp.syn := true;
     Tcp.rst := false; Tcp.psh := true; Tcp.ack := true; Tcp.urg := false; Tcp.ece := true; Tcp.cwr := false;
     Tcp.window_size := 65535; Tcp.checksum := 0; Tcp.urgent_pointer := 7;
     Tcp.options := {| Tcp.o_len := 4; Tcp.o_buf := [2; 4; 5; 180] ++ repeat 0 36 |} |}.
Definition ex_ip6 : BitFields.Model.Ipv6Header :=
  BitFields.Model.mkIpv6 5 74565 0 0 64 [32;1;13;184;0;0;0;0;0;0;0;0;0;0;0;1] [254;128;0;0;0;0;0;0;2;0;0;255;254;0;0;9].
Definition ex_exts6 : ExtChain.Model.Exts6 :=
  ExtChain.Model.mkExts6 (Some (ExtChain.Model.mkRaw 0 0 [1; 4; 0; 0; 0; 0])) None None
                         (Some (ExtChain.Model.mkFrag 0 0 false 99)) None.
Definition ex_cfg_tcp6 : cfg :=
  mkCfg (c_link ex_cfg) (VlDouble (BitFields.Model.mkVlan 1 false 100 0) (BitFields.Model.mkVlan 2 true 200 0))
        (NtIpv6 ex_ip6 ex_exts6) (TrTcp ex_tcp).
Example C10_ex_tcp6 :
  cfg_wf ex_cfg_tcp6 = true /\ chain_pre ex_cfg_tcp6 = true /\
  ext_layout ex_cfg_tcp6 = [(ExtChain.Spec.KHopByHop, 8); (ExtChain.Spec.KFragment, 8)] /\
  exists bs, build LE ex_cfg_tcp6 [1; 2; 3] = BOk bs /\ len bs = 105 /\
    ck_pseudo ex_cfg_tcp6 27 = Some (pseudo6 (BitFields.Model.v6_source ex_ip6) (BitFields.Model.v6_destination ex_ip6) 27 6) /\
    verifies (pseudo6 (BitFields.Model.v6_source ex_ip6) (BitFields.Model.v6_destination ex_ip6) 27 6 ++ drop 78 bs) /\
    W bs 12 = 34984 /\ W bs 16 = 33024 /\ W bs 20 = 34525 /\ B bs 28 = 0 /\ B bs 62 = 44 /\ B bs 70 = 6.
Proof.
  split; [vm_compute; reflexivity|]. split; [vm_compute; reflexivity|]. split; [vm_compute; reflexivity|].
  eexists. split; [vm_compute; reflexivity|]. vm_compute. repeat split; reflexivity.
Qed.

(* parse-back is not vacuous: the TCP/IPv6 example above is admitted, builds, and the
   decoder returns the expected view (two VLAN tags, hop-by-hop + fragment header, TCP) *)
Example C10_ex_parse_back_x :
  payload_admitted ex_cfg_tcp6 3 = true /\
  exists bs, build LE ex_cfg_tcp6 [1; 2; 3] = BOk bs /\ wire_ethernet bs = VOk (expected_x ex_cfg_tcp6 3) /\
    v_transport (expected_x ex_cfg_tcp6 3) = Some (VTcp 24 (78, 27)) /\
    v_net (expected_x ex_cfg_tcp6 3)
    = Some (VIpv6 (22, 40) (Some 0) false (62, 16) (mkVIp 6 false LsIpv6HeaderPayloadLen (78, 27))).
Proof.
  split; [vm_compute; reflexivity|]. eexists. split; [vm_compute; reflexivity|]. vm_compute.
  repeat split; reflexivity.
Qed.

(* ICMPv6 echo request over IPv6 behind a Linux cooked capture header: checksum with the
   RFC 8200 pseudo header (next header 58, upper-layer length = whole ICMPv6 message) *)
Definition ex_cfg_icmp6_sll : cfg :=
  mkCfg (LkLinuxSll 4 6 [1; 2; 3; 4; 5; 6; 0; 0]) VlNone (NtIpv6 ex_ip6 ExtChain.Model.exts6_default)
        (TrIcmpv6 (CtlMsg.Spec.V6EchoRequest 4660 1)).
Example C10_ex_icmp6 :
  cfg_wf ex_cfg_icmp6_sll = true /\ payload_admitted ex_cfg_icmp6_sll 3 = true /\
  exists bs, build LE ex_cfg_icmp6_sll [104; 105; 33] = BOk bs /\
    ck_pseudo ex_cfg_icmp6_sll 11
      = Some (pseudo6 (BitFields.Model.v6_source ex_ip6) (BitFields.Model.v6_destination ex_ip6) 11 58) /\
    verifies (pseudo6 (BitFields.Model.v6_source ex_ip6) (BitFields.Model.v6_destination ex_ip6) 11 58 ++ drop 56 bs) /\
    W bs 58 = 46807 /\ W bs 14 = 34525 /\ wire_linux_sll bs = VOk (expected_x ex_cfg_icmp6_sll 3).
Proof.
  split; [vm_compute; reflexivity|]. split; [vm_compute; reflexivity|].
  eexists. split; [vm_compute; reflexivity|]. vm_compute. repeat split; reflexivity.
Qed.

(* no link layer: the same packet through wire_from_ip and through wire_ether_type *)
Definition ex_cfg_nolink : cfg := mkCfg LkNone VlNone (c_net ex_cfg) (TrIcmpv4 (CtlMsg.Spec.V4Unknown 13 0 0 1 0 2)).
Example C10_ex_nolink :
  cfg_wf ex_cfg_nolink = true /\ payload_admitted ex_cfg_nolink 12 = true /\
  payload_admitted ex_cfg_nolink 11 = false /\
  exists bs, build LE ex_cfg_nolink (repeat 7 12) = BOk bs /\
    wire_from_ip bs = VOk (expected_x ex_cfg_nolink 12) /\
    wire_ether_type bs 2048
    = VOk (mkVPacket (Some (VEtherPayload (mkVEp 2048 LsSlice (0, 40)))) []
                     (v_net (expected_x ex_cfg_nolink 12)) (Some (VIcmpv4 (20, 20)))) /\
    verifies (drop 20 bs).
Proof.
  split; [vm_compute; reflexivity|]. split; [vm_compute; reflexivity|]. split; [vm_compute; reflexivity|].
  eexists. split; [vm_compute; reflexivity|]. vm_compute. repeat split; reflexivity.
Qed.

(* ---- typed ICMP kinds: non-vacuity with boundary field values ----
   ICMPv4 DestinationUnreachable / FragmentationNeeded (next-hop MTU 0xffff) over IPv6 behind a
   hop-by-hop + fragment header chain and two VLAN tags; TimestampReply (20 byte header, all
   fields at their maximum) with the empty payload; ICMPv6 RouterAdvertisement (M set, O clear)
   and PacketTooBig (MTU 2^32-1) *)
Definition ex_cfg_du : cfg :=
  mkCfg (c_link ex_cfg_tcp6) (c_vlan ex_cfg_tcp6) (NtIpv6 ex_ip6 ex_exts6)
        (TrIcmpv4 (CtlMsg.Spec.V4DestinationUnreachable (CtlMsg.Spec.DuFragmentationNeeded 65535))).
Definition ex_ts : CtlMsg.Spec.TimestampMessage := CtlMsg.Spec.mkTimestamp 65535 65535 4294967295 4294967295 4294967295.
Definition ex_cfg_ts : cfg := mkCfg LkNone VlNone (c_net ex_cfg) (TrIcmpv4 (CtlMsg.Spec.V4TimestampReply ex_ts)).
Definition ex_cfg_ra : cfg :=
  mkCfg (c_link ex_cfg_icmp6_sll) VlNone (c_net ex_cfg_icmp6_sll)
        (TrIcmpv6 (CtlMsg.Spec.V6RouterAdvertisement 255 true false 65535)).
Definition ex_cfg_ptb : cfg :=
  mkCfg LkNone VlNone (c_net ex_cfg_icmp6_sll) (TrIcmpv6 (CtlMsg.Spec.V6PacketTooBig 4294967295)).
Example C10_ex_typed_icmp4 :
  cfg_wf ex_cfg_du = true /\ payload_admitted ex_cfg_du 3 = true /\
  Icmp4.wf_icmp4_type (CtlMsg.Spec.V4DestinationUnreachable (CtlMsg.Spec.DuFragmentationNeeded 65535)) = true /\
  exists bs, build LE ex_cfg_du [1; 2; 3] = BOk bs /\ len bs = final_size ex_cfg_du 3 /\
    drop (off_transport ex_cfg_du) bs = [3; 4; 248; 249; 0; 0; 255; 255; 1; 2; 3] /\
    verifies (drop (off_transport ex_cfg_du) bs) /\
    wire_ethernet bs = VOk (expected_x ex_cfg_du 3) /\
    Icmp4.icmp4_from_slice (drop (off_transport ex_cfg_du) bs)
    = Roundtrip.Common.Ok ({| Icmp4.icmp4_type := CtlMsg.Spec.V4DestinationUnreachable (CtlMsg.Spec.DuFragmentationNeeded 65535);
                              Icmp4.icmp4_checksum := 63737 |}, [1; 2; 3]).
Proof.
  split; [vm_compute; reflexivity|]. split; [vm_compute; reflexivity|]. split; [vm_compute; reflexivity|].
  eexists. split; [vm_compute; reflexivity|]. vm_compute. repeat split; reflexivity.
Qed.
Example C10_ex_typed_timestamp :
  cfg_wf ex_cfg_ts = true /\ tr_header_len (c_transport ex_cfg_ts) = 20 /\
  payload_admitted ex_cfg_ts 0 = true /\ payload_admitted ex_cfg_ts 12 = false /\
  Icmp4.wf_icmp4_type (CtlMsg.Spec.V4TimestampReply ex_ts) = true /\
  exists bs, build LE ex_cfg_ts [] = BOk bs /\ len bs = 40 /\ W bs 2 = 40 /\
    wire_from_ip bs = VOk (expected_x ex_cfg_ts 0) /\
    v_transport (expected_x ex_cfg_ts 0) = Some (VIcmpv4 (20, 20)) /\
    CtlMsg.Spec.icmp4 (drop 20 bs) = CtlMsg.Spec.Ok (CtlMsg.Spec.V4TimestampReply ex_ts, 20, []) /\
    verifies (drop 20 bs).
Proof.
  split; [vm_compute; reflexivity|]. split; [reflexivity|]. split; [vm_compute; reflexivity|].
  split; [vm_compute; reflexivity|]. split; [vm_compute; reflexivity|].
  eexists. split; [vm_compute; reflexivity|]. vm_compute. repeat split; reflexivity.
Qed.
(* the excluded side: the same message with one payload byte is refused with `required 20` *)
Example C10_ex_timestamp_payload :
  icmp4_admits (CtlMsg.Spec.V4TimestampReply ex_ts) 1 = false /\ is_fragmented_x ex_cfg_ts = false /\
  chain_ok ex_cfg_ts = true /\
  exists bs, build LE ex_cfg_ts [7] = BOk bs /\ len bs = final_size ex_cfg_ts 1 /\
    wire_from_ip bs = VErr (ELen (mkLenError 20 21 LsIpv4HeaderTotalLen LyIcmpv4TimestampReply 20)).
Proof.
  split; [vm_compute; reflexivity|]. split; [vm_compute; reflexivity|]. split; [vm_compute; reflexivity|].
  eexists. split; [vm_compute; reflexivity|]. vm_compute. repeat split.
Qed.
Example C10_ex_typed_icmp6 :
  cfg_wf ex_cfg_ra = true /\ cfg_wf ex_cfg_ptb = true /\
  Icmp6.wf_icmp6_type (CtlMsg.Spec.V6RouterAdvertisement 255 true false 65535) = true /\
  (exists bs, build LE ex_cfg_ra [3; 4; 0; 0; 0; 0; 0; 0] = BOk bs /\
     take 8 (drop 56 bs) = [134; 0; B bs 58; B bs 59; 255; 128; 255; 255] /\
     wire_linux_sll bs = VOk (expected_x ex_cfg_ra 8) /\
     CtlMsg.Spec.icmp6 (drop 56 bs)
     = CtlMsg.Spec.Ok (CtlMsg.Spec.V6RouterAdvertisement 255 true false 65535, [3; 4; 0; 0; 0; 0; 0; 0]) /\
     verifies (pseudo6 (BitFields.Model.v6_source ex_ip6) (BitFields.Model.v6_destination ex_ip6) 16 58 ++ drop 56 bs)) /\
  (exists bs, build BE ex_cfg_ptb [] = BOk bs /\
     take 2 (drop 40 bs) = [2; 0] /\ drop 44 bs = [255; 255; 255; 255] /\
     CtlMsg.Spec.icmp6 (drop 40 bs) = CtlMsg.Spec.Ok (CtlMsg.Spec.V6PacketTooBig 4294967295, [])).
Proof.
  split; [vm_compute; reflexivity|]. split; [vm_compute; reflexivity|]. split; [vm_compute; reflexivity|].
  split; eexists; (split; [vm_compute; reflexivity|]); vm_compute; repeat split; reflexivity.
Qed.
(* a raw Unknown that names a typed kind is read as that kind: not wf_icmp4_type, the value
   theorem does not apply, the window theorem C10_parse_back does *)
Example C10_ex_raw_named :
  let c := mkCfg LkNone VlNone (c_net ex_cfg) (TrIcmpv4 (CtlMsg.Spec.V4Unknown 8 0 0 1 0 2)) in
  cfg_wf c = true /\ Icmp4.wf_icmp4_type (CtlMsg.Spec.V4Unknown 8 0 0 1 0 2) = false /\
  payload_admitted c 1 = true /\
  exists bs, build LE c [9] = BOk bs /\ wire_from_ip bs = VOk (expected_x c 1) /\
    CtlMsg.Spec.icmp4 (drop 20 bs) = CtlMsg.Spec.Ok (CtlMsg.Spec.V4EchoRequest 1 2, 8, [9]).
Proof.
  cbv zeta. split; [vm_compute; reflexivity|]. split; [vm_compute; reflexivity|]. split; [vm_compute; reflexivity|].
  eexists. split; [vm_compute; reflexivity|]. vm_compute. repeat split.
Qed.
(* write(17, ..): chain_ok holds, the decoder reaches the transport position with the configured
   layers and reads the raw payload as a UDP header *)
Example C10_ex_raw_udp :
  let c := wit_cfg4 (TrNone 17) in
  cfg_wf c = true /\ chain_ok c = true /\ payload_admitted c 3 = false /\
  exists bs, build LE c wit_payload = BOk bs /\ drop (off_transport c) bs = wit_payload /\
    wire_ethernet bs = wire_transport bs (upto_net c 3) 17 false LsIpv4HeaderTotalLen 38 41 /\
    wire_ethernet bs = VErr (ELen (mkLenError 8 3 LsIpv4HeaderTotalLen LyUdpHeader 38)).
Proof.
  cbv zeta. split; [vm_compute; reflexivity|]. split; [vm_compute; reflexivity|]. split; [vm_compute; reflexivity|].
  eexists. split; [vm_compute; reflexivity|]. vm_compute. repeat split.
Qed.
(* write(51, ..) over IPv4 (authentication header number, excluded from C10_parse_back): link, VLAN
   tag and IP header are accepted as configured (C10_parse_back_upto_ip); the decoder then reads an
   authentication header out of the 3 payload bytes and fails there *)
Example C10_ex_upto_ip :
  let c := wit_cfg4 (TrNone 51) in
  cfg_wf c = true /\ chain_ok c = false /\
  exists bs, build LE c wit_payload = BOk bs /\ len bs = 41 /\ B bs 27 = 51 /\ W bs 20 = 23 /\
    link_view c 41 = mkVPacket (Some (VEthernet2 (0, 41))) [VVlan (14, 27)] None None /\
    wire_ethernet bs = wire_ipv4_tail bs (link_view c 41) 18 20 41 /\
    wire_ethernet bs = VErr (ELen (mkLenError 12 3 LsIpv4HeaderTotalLen LyIpAuthHeader 38)).
Proof.
  cbv zeta. split; [vm_compute; reflexivity|]. split; [vm_compute; reflexivity|].
  eexists. split; [vm_compute; reflexivity|]. vm_compute. repeat split.
Qed.
(* hypotheses of C10_icmp4_timestamp_payload_rejected are satisfiable: TimestampReply + one byte *)
Example C10_ex_timestamp_payload_slice :
  Icmp4.icmp4_type_header_len (CtlMsg.Spec.V4TimestampReply ex_ts) = 20 /\
  exists bs, build LE ex_cfg_ts [7] = BOk bs /\ len (drop 20 bs) = 21 /\
    Icmp4.icmp4_from_slice (drop 20 bs) = Roundtrip.Common.Err Roundtrip.Common.ELen /\
    (exists h, Icmp4.icmp4_read (drop 20 bs) = Roundtrip.Common.Ok (h, [7])
               /\ Icmp4.icmp4_type h = CtlMsg.Spec.V4TimestampReply ex_ts).
Proof.
  split; [reflexivity|]. eexists. split; [vm_compute; reflexivity|].
  split; [vm_compute; reflexivity|]. split; [vm_compute; reflexivity|].
  eexists. split; [vm_compute; reflexivity|]. vm_compute. reflexivity.
Qed.

(* ==================================================================================================
   The clauses of the property statement about the crate's own slicer, the three sinks and the
   header values.
   ================================================================================================== *)
From EP Require Parse.Slices Parse.Cursor Parse.StrictProofs.
From EP Require IoFault.Spec IoFault.Model IoFault.Proofs.
From EP Require Roundtrip.Eth Roundtrip.Sll Roundtrip.Vlan Roundtrip.Ipv6 Roundtrip.Arp Roundtrip.Udp.
From EP Require Import Builder.ProofsCrate Builder.ProofsSinks Builder.ProofsLink.

(* ---- "strict parsing accepts them": the model of the CRATE's slicer, not only the reference decoder ----
   every byte of a built packet is a byte.  Premises: cfg_wf (it contains bytes_okb of every
   address / option / ICV buffer of the configuration) and bytes_ok of the payload. *)
Theorem C10_build_bytes_ok : forall e c p bs,
  cfg_wf c = true -> bytes_ok p -> build e c p = BOk bs -> bytes_ok bs.
Proof. exact build_bytes_ok. Qed.
Print Assumptions C10_build_bytes_ok.

(* crate_entry c = SlicedPacket::from_ethernet / from_linux_sll / from_ip (Parse/Cursor.v, the
   transliteration of the crate's slicers that C03 refines against the reference decoder), chosen by
   the link layer of the builder.  Composition of C10_parse_back with C03's from_*_rel
   (Parse/StrictProofs.v) through C10_build_bytes_ok: the crate-side slicer returns Ok, and the
   observer view of its result (windows, protocol numbers, fragmentation flags, length sources) is
   exactly the configured layout expected_x. *)
Theorem C10_crate_parse_back : forall e c p bs,
  cfg_wf c = true -> bytes_ok p -> payload_admitted c (len p) = true -> build e c p = BOk bs ->
  exists sp, crate_entry c bs = Ok sp /\ view sp = expected_x c (len p).
Proof. exact crate_parse_back. Qed.
Print Assumptions C10_crate_parse_back.

Theorem C10_crate_parse_back_ether_type : forall e c p bs,
  cfg_wf c = true -> bytes_ok p -> payload_admitted c (len p) = true -> build e c p = BOk bs ->
  c_link c = LkNone ->
  let x := expected_x c (len p) in
  exists sp, EP.Parse.Cursor.SlicedPacket.from_ether_type (net_ether_type (c_net c)) bs = Ok sp /\
    view sp = mkVPacket (Some (VEtherPayload (mkVEp (net_ether_type (c_net c)) LsSlice (0, len bs))))
                        (v_exts x) (v_net x) (v_transport x).
Proof. exact crate_parse_back_ether_type. Qed.
Print Assumptions C10_crate_parse_back_ether_type.

(* whatever the payload: no entry point of the slicer model reaches a Bug value on built bytes *)
Theorem C10_crate_never_bug : forall e c p bs et b, cfg_wf c = true -> bytes_ok p -> build e c p = BOk bs ->
  EP.Parse.Cursor.SlicedPacket.from_ethernet bs <> Bug b /\ EP.Parse.Cursor.SlicedPacket.from_linux_sll bs <> Bug b /\
  EP.Parse.Cursor.SlicedPacket.from_ether_type et bs <> Bug b /\ EP.Parse.Cursor.SlicedPacket.from_ip bs <> Bug b.
Proof. exact crate_never_bug. Qed.
Print Assumptions C10_crate_never_bug.

(* ---- "identical through write, write_to_vec and write_to_slice" ----
   C16 (IoFault/Model.v) models final_write_with_net as a write program over abstract part
   encodings (bcfg) and proves what each sink makes of such a program.  bcfg_of e c p
   (Builder/ProofsSinks.v) instantiates the parts with the encodings of this model.
   C10_sink_bridge: that program writes exactly the bytes and ends with exactly the verdict of
   build_run, for EVERY well-formed configuration (error outcomes included); its declared part
   lengths are the lengths of the encodings (bcfg_wf, the hypothesis of C16_builder_space) and
   C16's final_size is this model's final_size. *)
Theorem C10_sink_bridge : forall e c p, cfg_wf c = true ->
  let prog := IO.final_write_with_net (bcfg_of e c p) p in
  IO.wprog_bytes prog = snd (build_run e c p) /\
  IO.wprog_verdict prog = verdict_of (fst (build_run e c p)) /\
  IOP.bcfg_wf (bcfg_of e c p) /\
  forall n, IO.final_size (bcfg_of e c p) n = final_size c n.
Proof.
  exact (fun e c p W => conj (proj1 (bridge e c p W)) (conj (proj2 (bridge e c p W))
           (conj (bcfg_of_wf e c p) (fun n => size_bridge e c p n W)))).
Qed.
Print Assumptions C10_sink_bridge.

(* Instantiating C16_builder_space / C16_builder_write_fault / the VecWriter with it: with
   (v, out) = build_run e c p,
     write_to_vec   returns v and appends exactly out;
     write          into a sink failing at byte k: k >= |out| -> returns v, the sink holds out;
                    k < |out| -> Err(Io), the sink holds the first k bytes of out;
     write_to_slice |buffer| < size() -> Space(size()), buffer untouched; otherwise returns v
                    (Ok carries size()), the buffer starts with out, the rest is untouched;
   |out| <= size(), with equality on success. *)
Theorem C10_three_sinks : forall e c p, cfg_wf c = true ->
  let b := bcfg_of e c p in
  let out := snd (build_run e c p) in
  let v := verdict_of (fst (build_run e c p)) in
  let size := final_size c (len p) in
  IO.run_w IO.vec_write_all (IO.final_write_with_net b p) [] = (IO.ret_of v, out) /\
  (forall k chunk zero, 1 <= chunk ->
     let r := IO.builder_write b p (IOP.fresh_sink k chunk zero) in
     (len out <= k -> fst r = IO.ret_of v /\ IOS.fs_got (snd r) = out) /\
     (k < len out -> fst r = IO.RIo (if zero then IOS.KWriteZero else IOS.KOther) /\
                     IOS.fs_got (snd r) = take k out)) /\
  (forall buffer,
     (len buffer < size -> IO.final_write_to_slice b buffer p = (IO.BSpace size, buffer)) /\
     (size <= len buffer ->
        IO.final_write_to_slice b buffer p = (IOP.bres_of size v, out ++ drop (len out) buffer))) /\
  len out <= size /\ (v = IO.VOk -> len out = size).
Proof. exact three_sinks. Qed.
Print Assumptions C10_three_sinks.

(* the successful case: all three sinks deliver `build e c p`; write_to_slice needs exactly size() bytes *)
Theorem C10_three_sinks_ok : forall e c p bs, cfg_wf c = true -> build e c p = BOk bs ->
  let b := bcfg_of e c p in
  let size := final_size c (len p) in
  len bs = size /\
  IO.run_w IO.vec_write_all (IO.final_write_with_net b p) [] = (IO.ROk, bs) /\
  (forall k chunk zero, 1 <= chunk -> size <= k ->
     let r := IO.builder_write b p (IOP.fresh_sink k chunk zero) in fst r = IO.ROk /\ IOS.fs_got (snd r) = bs) /\
  (forall buffer,
     (len buffer < size -> IO.final_write_to_slice b buffer p = (IO.BSpace size, buffer)) /\
     (size <= len buffer -> IO.final_write_to_slice b buffer p = (IO.BOk size, bs ++ drop size buffer))).
Proof. exact three_sinks_ok. Qed.
Print Assumptions C10_three_sinks_ok.

(* Builder.Model.write_to_slice (result value only) is the result of C16's final_write_to_slice *)
Theorem C10_model_write_to_slice : forall e c p buffer, cfg_wf c = true ->
  write_to_slice e c (len buffer) p = sres_of (fst (IO.final_write_to_slice (bcfg_of e c p) buffer p)) c e p.
Proof. exact model_write_to_slice_is_c16. Qed.
Print Assumptions C10_model_write_to_slice.

(* ---- "parsing recovers the supplied addresses": through the crate's header decoders ----
   C08 models of Ethernet2Header / LinuxSllHeader / SingleVlanHeader / Ipv6Header / ArpPacket /
   UdpHeader ::from_slice applied to the built bytes at the computed offsets return the configured
   structs (eth_of / sll_of / vl_of / ip6_of / arp_of / udp_of: the supplied fields, the ether type /
   next header / length fields as derived) and the rest of the packet.  IPv4 / TCP / ICMP / extension
   headers: C10_parse_back_ipv4_header_partial, C10_parse_back_tcp_partial, C10_icmp*_value_back,
   C10_layers_as_configured. *)
Theorem C10_link_values_back : forall e c p bs, cfg_wf c = true -> build e c p = BOk bs ->
  match c_link c with
  | LkNone => True
  | LkEthernet2 s d =>
      Eth.eth_from_slice bs = Roundtrip.Common.Ok (eth_of s d (link_announces c), drop 14 bs)
  | LkLinuxSll pt vl a =>
      Sll.sll_from_slice bs = Roundtrip.Common.Ok (sll_of pt vl a (net_et c), drop 16 bs)
  end /\
  match c_vlan c with
  | VlNone => True
  | VlSingle v =>
      Vlan.vl_from_slice (drop (off_vlan c) bs)
      = Roundtrip.Common.Ok (vl_of (vlan_set_ether_type v (net_et c)), drop (off_vlan c + 4) bs)
  | VlDouble o i =>
      Vlan.vl_from_slice (drop (off_vlan c) bs)
      = Roundtrip.Common.Ok (vl_of (vlan_set_ether_type o 33024), drop (off_vlan c + 4) bs) /\
      Vlan.vl_from_slice (drop (off_vlan c + 4) bs)
      = Roundtrip.Common.Ok (vl_of (vlan_set_ether_type i (net_et c)), drop (off_vlan c + 8) bs)
  end /\
  match c_net c with
  | NtIpv4 _ _ => True
  | NtIpv6 h x =>
      Ipv6.ip6_from_slice (drop (off_net c) bs)
      = Roundtrip.Common.Ok (ip6_of (v6_final h x (c_transport c) (len p)), drop (off_net c + 40) bs)
  | NtArp a => Arp.arp_from_slice (drop (off_net c) bs) = Roundtrip.Common.Ok (arp_of a)
  end /\
  match c_net c, c_transport c with
  | NtArp _, _ => True
  | _, TrUdp sp dp =>
      exists ck, ck < 65536 /\
        Udp.udp_from_slice (drop (off_transport c) bs) = Roundtrip.Common.Ok (udp_of sp dp (8 + len p) ck, p)
  | _, _ => True
  end.
Proof. exact link_values_back. Qed.
Print Assumptions C10_link_values_back.

(* ---- the ICMP value theorems: what the hypothesis beyond cfg_wf excludes ----
   wf_icmp4_type / wf_icmp6_type = the field ranges (part of cfg_wf) AND "a raw Unknown{type, code}
   does not name a typed kind".  With cfg_wf the hypothesis is exactly the second part, and it
   concerns only icmpv4_raw / icmpv6_raw values: *)
Theorem C10_icmp_wf_gap :
  (forall t, icmp4_cfg_wf t = true -> Icmp4.wf_icmp4_type t = negb (icmp4_raw_names_typed t)) /\
  (forall t, icmp6_cfg_wf t = true -> Icmp6.wf_icmp6_type t = negb (icmp6_raw_names_typed t)).
Proof. exact (conj icmp4_wf_gap icmp6_wf_gap). Qed.
Print Assumptions C10_icmp_wf_gap.

(* the (type, code) pairs a raw value must not name -- complete sweep over 256 x 256 *)
Theorem C10_icmp_typed_pairs :
  filter (fun q => Icmp4.icmp4_typed (fst q) (snd q)) all_pairs = icmp4_typed_pairs /\
  filter (fun q => Icmp6.icmp6_typed (fst q) (snd q)) all_pairs = icmp6_typed_pairs.
Proof. exact icmp_typed_pairs_exact. Qed.
Print Assumptions C10_icmp_typed_pairs.

Theorem C10_icmp4_value_back_cfg : forall e c p bs t, cfg_wf c = true -> build e c p = BOk bs ->
  c_transport c = TrIcmpv4 t -> (forall a, c_net c <> NtArp a) ->
  icmp4_raw_names_typed t = false ->
  exists ck, ck < 65536 /\
    let seg := drop (off_transport c) bs in
    let h := {| Icmp4.icmp4_type := t; Icmp4.icmp4_checksum := ck |} in
    Icmp4.icmp4_read seg = Roundtrip.Common.Ok (h, p) /\
    (Icmp4.icmp4_type_header_len t = 8 \/ p = [] ->
     Icmp4.icmp4_from_slice seg = Roundtrip.Common.Ok (h, p) /\
     CtlMsg.Spec.icmp4 seg = CtlMsg.Spec.Ok (t, Icmp4.icmp4_type_header_len t, p) /\
     CtlMsg.Model.Icmpv4Slice.view seg = CtlMsg.Spec.Ok (t, Icmp4.icmp4_type_header_len t, p)).
Proof. exact icmp4_value_back_cfg. Qed.
Print Assumptions C10_icmp4_value_back_cfg.

Theorem C10_icmp6_value_back_cfg : forall e c p bs t, cfg_wf c = true -> build e c p = BOk bs ->
  c_transport c = TrIcmpv6 t -> (forall a, c_net c <> NtArp a) ->
  icmp6_raw_names_typed t = false ->
  exists ck, ck < 65536 /\
    let seg := drop (off_transport c) bs in
    let h := {| Icmp6.icmp6_type := t; Icmp6.icmp6_checksum := ck |} in
    Icmp6.icmp6_read seg = Roundtrip.Common.Ok (h, p) /\
    Icmp6.icmp6_from_slice seg = Roundtrip.Common.Ok (h, p) /\
    CtlMsg.Spec.icmp6 seg = CtlMsg.Spec.Ok (t, p) /\
    CtlMsg.Model.Icmpv6Slice.view seg = CtlMsg.Spec.Ok (t, p).
Proof. exact icmp6_value_back_cfg. Qed.
Print Assumptions C10_icmp6_value_back_cfg.

(* statement pinning *)
Check (C10_build_bytes_ok : forall e c p bs,
  cfg_wf c = true -> bytes_ok p -> build e c p = BOk bs -> bytes_ok bs).
Check (C10_crate_parse_back : forall e c p bs,
  cfg_wf c = true -> bytes_ok p -> payload_admitted c (len p) = true -> build e c p = BOk bs ->
  exists sp, crate_entry c bs = Ok sp /\ view sp = expected_x c (len p)).

(* ---- non-vacuity ---- *)
(* the documentation example through the crate's slicer model *)
Example C10_ex_crate_parse_back :
  cfg_wf ex_cfg = true /\ bytes_ok ex_payload /\ payload_admitted ex_cfg 8 = true /\ bytes_ok ex_bytes /\
  exists sp, crate_entry ex_cfg ex_bytes = Ok sp /\ view sp = expected_x ex_cfg 8 /\
    v_transport (view sp) = Some (VUdp (34, 16)).
Proof.
  split; [vm_compute; reflexivity|]. split; [apply bytes_okb_spec; vm_compute; reflexivity|].
  split; [vm_compute; reflexivity|]. split; [apply bytes_okb_spec; vm_compute; reflexivity|].
  eexists. split; [vm_compute; reflexivity|]. vm_compute. repeat split.
Qed.
(* two VLAN tags, IPv6 with hop-by-hop + fragment header, TCP with options *)
Example C10_ex_crate_parse_back_x :
  exists bs sp, build LE ex_cfg_tcp6 [1; 2; 3] = BOk bs /\ bytes_ok bs /\
    EP.Parse.Cursor.SlicedPacket.from_ethernet bs = Ok sp /\ view sp = expected_x ex_cfg_tcp6 3 /\
    v_transport (view sp) = Some (VTcp 24 (78, 27)).
Proof.
  eexists. eexists. split; [vm_compute; reflexivity|]. split; [apply bytes_okb_spec; vm_compute; reflexivity|].
  split; [vm_compute; reflexivity|]. vm_compute. repeat split.
Qed.
(* the three sinks on the documentation example: Vec, slice one byte too short, slice two bytes longer *)
Example C10_ex_three_sinks :
  let b := bcfg_of LE ex_cfg ex_payload in
  IO.run_w IO.vec_write_all (IO.final_write_with_net b ex_payload) [] = (IO.ROk, ex_bytes) /\
  IO.final_size b 8 = 50 /\
  IO.final_write_to_slice b (repeat 9 49) ex_payload = (IO.BSpace 50, repeat 9 49) /\
  IO.final_write_to_slice b (repeat 9 52) ex_payload = (IO.BOk 50, ex_bytes ++ [9; 9]) /\
  fst (IO.builder_write b ex_payload (IOP.fresh_sink 49 7 false)) = IO.RIo IOS.KOther /\
  IOS.fs_got (snd (IO.builder_write b ex_payload (IOP.fresh_sink 49 7 false))) = take 49 ex_bytes /\
  IO.builder_write b ex_payload (IOP.fresh_sink 50 7 false) = (IO.ROk, IOS.mk_fsink 0 7 false ex_bytes) /\
  write_to_slice LE ex_cfg 49 ex_payload = SSpace 50 /\ write_to_slice LE ex_cfg 50 ex_payload = SOk 50.
Proof. vm_compute. repeat split. Qed.
(* an error outcome through the sinks: ICMPv6 in IPv4 behind a VLAN tag -- link, VLAN, IP header
   (38 bytes) have been written when the error is detected *)
Example C10_ex_three_sinks_err :
  let b := bcfg_of LE ex_cfg_icmp6 [1] in
  IO.run_w IO.vec_write_all (IO.final_write_with_net b [1]) []
    = (IO.RContent IO.CIcmpv6InIpv4, snd (build_run LE ex_cfg_icmp6 [1])) /\
  len (snd (build_run LE ex_cfg_icmp6 [1])) = 38 /\ IO.final_size b 1 = 47 /\
  fst (IO.final_write_to_slice b (repeat 0 47) [1]) = IO.BContent IO.CIcmpv6InIpv4 /\
  IO.final_write_to_slice b (repeat 0 46) [1] = (IO.BSpace 47, repeat 0 46).
Proof. vm_compute. repeat split. Qed.
(* decoders on built bytes: Ethernet II + two VLAN tags + IPv6; Linux SLL; ARP; UDP *)
Definition ex_arp : ArpPacket := mkArp 1 2048 2 [1; 2; 3; 4; 5; 6] [10; 0; 0; 1] [7; 8; 9; 10; 11; 12] [10; 0; 0; 2].
Definition ex_cfg_arp : cfg :=
  mkCfg (c_link ex_cfg) (VlSingle (BitFields.Model.mkVlan 5 true 1234 0)) (NtArp ex_arp) (TrNone 0).
Example C10_ex_link_values :
  (exists bs, build LE ex_cfg_tcp6 [1; 2; 3] = BOk bs /\
     Eth.eth_from_slice bs
     = Roundtrip.Common.Ok ({| Eth.eth_source := [1; 2; 3; 4; 5; 6]; Eth.eth_destination := [7; 8; 9; 10; 11; 12];
                               Eth.eth_ether_type := 34984 |}, drop 14 bs) /\
     Vlan.vl_from_slice (drop 18 bs)
     = Roundtrip.Common.Ok ({| Vlan.vl_pcp := 2; Vlan.vl_drop_eligible_indicator := true; Vlan.vl_vlan_id := 200;
                               Vlan.vl_ether_type := 34525 |}, drop 22 bs) /\
     exists h6, Ipv6.ip6_from_slice (drop 22 bs) = Roundtrip.Common.Ok (h6, drop 62 bs) /\
       Ipv6.i6_payload_length h6 = 43 /\ Ipv6.i6_next_header h6 = 0 /\ Ipv6.i6_flow_label h6 = 74565 /\
       Ipv6.i6_source h6 = BitFields.Model.v6_source ex_ip6) /\
  (exists bs, build LE ex_cfg_icmp6_sll [104; 105; 33] = BOk bs /\
     Sll.sll_from_slice bs
     = Roundtrip.Common.Ok ({| Sll.sll_packet_type := 4; Sll.sll_arp_hrd_type := 1;
                               Sll.sll_sender_address_valid_length := 6;
                               Sll.sll_sender_address := [1; 2; 3; 4; 5; 6; 0; 0];
                               Sll.sll_protocol_type := Sll.SllEtherType 34525 |}, drop 16 bs)) /\
  (cfg_wf ex_cfg_arp = true /\
   exists bs, build LE ex_cfg_arp [] = BOk bs /\ len bs = 46 /\
     Arp.arp_from_slice (drop 18 bs) = Roundtrip.Common.Ok (arp_of ex_arp) /\
     Arp.arp_operation (arp_of ex_arp) = 2 /\ Arp.arp_target_protocol_addr_buf (arp_of ex_arp) = [10; 0; 0; 2]) /\
  Udp.udp_from_slice (drop 34 ex_bytes)
  = Roundtrip.Common.Ok ({| Udp.udp_source_port := 21; Udp.udp_destination_port := 1234; Udp.udp_length := 16;
                            Udp.udp_checksum := 26495 |}, ex_payload).
Proof.
  split; [|split; [|split]].
  - eexists. split; [vm_compute; reflexivity|]. split; [vm_compute; reflexivity|]. split; [vm_compute; reflexivity|].
    eexists. split; [vm_compute; reflexivity|]. vm_compute. repeat split.
  - eexists. split; [vm_compute; reflexivity|]. vm_compute. reflexivity.
  - split; [vm_compute; reflexivity|]. eexists. split; [vm_compute; reflexivity|]. vm_compute. repeat split.
  - vm_compute. reflexivity.
Qed.
(* which raw values the ICMP value theorems exclude *)
Example C10_ex_raw_names_typed :
  icmp4_raw_names_typed (CtlMsg.Spec.V4Unknown 8 0 0 1 0 2) = true /\
  icmp4_raw_names_typed (CtlMsg.Spec.V4Unknown 8 1 0 1 0 2) = false /\
  icmp4_raw_names_typed (CtlMsg.Spec.V4Unknown 42 0 255 255 255 255) = false /\
  icmp4_raw_names_typed (CtlMsg.Spec.V4EchoRequest 1 2) = false /\
  icmp6_raw_names_typed (CtlMsg.Spec.V6Unknown 128 0 0 1 0 2) = true /\
  icmp6_raw_names_typed (CtlMsg.Spec.V6Unknown 200 7 0 1 0 2) = false /\
  length icmp4_typed_pairs = 29%nat /\ length icmp6_typed_pairs = 28%nat.
Proof. vm_compute. repeat split. Qed.

(* ---- PacketHeaders on built bytes -----------------------------------------------------
   C10_crate_parse_back proves "strict parsing accepts them and recovers the supplied values" for the
   SlicedPacket family.  Here the same for the header-struct family, by composition (Builder/CutFree.v,
   Builder/HdrOfView.v, Builder/ProofsHeaders.v; no new model):
     C10_crate_parse_back        SlicedPacket::from_* on the built bytes = Ok sp with view expected_x
     C04_headers_eq_slices       PacketHeaders::from_* = (`hagree`) the slicing algorithm CUT in front of the first
                                 IPv6 extension header of a kind whose struct slot is already filled
     C10_cut_free                the cut result is the slicing result sp as soon as, on every header payload from
                                 which sp's extension area was sliced, the cut walk and the uncut walk coincide
                                 (`exts_indep`); C10_chain_cut_free: they coincide when the header payload carries a
                                 chain (Parse/HdrSlots.v) whose kinds never meet a filled slot (`norefill`)
     C10_built_not_stopped       that holds for EVERY built configuration the message type admits: the builder
                                 writes hop-by-hop, destination options, routing, fragment, authentication, final
                                 destination options (the last only together with a routing header), each at most
                                 once; none of the 48 shapes meets a filled slot (the two destination options
                                 headers go to different slots because a routing header lies between them).  So the
                                 C04 exception never applies to a built packet: Cut.from_* true bs =
                                 SlicedPacket.from_* bs and stopped_at_ext = false, for the entry points
                                 from_ethernet / from_ip / from_ether_type.
   C10_headers_parse_back: for every well-formed configuration whose payload the message type admits (the
   hypotheses of C10_crate_parse_back), PacketHeaders::from_ethernet_slice (Ethernet II link) / from_ip_slice (no
   link header) / from_ether_type with the network layer's ether type (no link header) on the built bytes returns
   Ok, and the observer view of the result (Parse/HdrView.v: the window of every header struct + the innermost
   payload) is exactly `hexpected c (len p)` = `hv_of_view` of the expected view expected_x: Ethernet II header
   (0, 14); one (fst w, 4) window per VLAN tag; IPv4 header (+ authentication header) / IPv6 header, first
   next-header, fragmentation flag and the window of all extension headers / ARP packet; the transport header
   window (UDP 8, TCP data offset * 4, ICMPv6 8, ICMPv4 8 or 20 as the parser reads the first two octets:
   `icmp4_parsed_hl`) and the payload behind it; without transport layer (raw ip number, fragmenting
   fragment header / IPv4 fragment) the IP payload descriptor (number, fragmentation flag, length source,
   window).  PacketHeaders has no Linux cooked capture entry point (`hdr_entry c bs = None` there). *)
From EP Require Import Parse.HdrModel Parse.HdrView Parse.HdrCut.
From EP Require Parse.Slices Parse.Cursor Parse.HdrSlots.
From EP Require Import Builder.CutFree Builder.HdrOfView Builder.ProofsHeaders.

(* generic (nothing about the builder): a chain without slot collision is walked identically with and
   without the cut *)
Theorem C10_chain_cut_free : forall nh0 hp L k' nh',
  EP.Parse.HdrSlots.chain hp 0 nh0 L k' nh' ->
  norefill fill_none (map EP.Parse.HdrSlots.item_kind L) = true ->
  is_ext_number nh' = false -> nh' <> IPN_HOP_BY_HOP ->
  Cut.exts_from_slice true nh0 hp = Cut.exts_from_slice false nh0 hp.
Proof. exact exts_cutfree. Qed.
Print Assumptions C10_chain_cut_free.

Theorem C10_cut_free : forall bs et,
  (forall sp, EP.Parse.Cursor.SlicedPacket.from_ethernet bs = Ok sp -> exts_indep sp ->
     Cut.from_ethernet true bs = Ok sp) /\
  (forall sp, EP.Parse.Cursor.SlicedPacket.from_ether_type et bs = Ok sp -> exts_indep sp ->
     Cut.from_ether_type true et bs = Ok sp) /\
  (forall sp, EP.Parse.Cursor.SlicedPacket.from_ip bs = Ok sp -> exts_indep sp -> Cut.from_ip true bs = Ok sp).
Proof. exact cut_free. Qed.
Print Assumptions C10_cut_free.

Check (eq_refl : norefill =
  fix nr (f : fill) (l : list N) : bool :=
    match l with
    | [] => true
    | k :: r => negb (refilled f k) && nr (fill_add f k) r
    end).
Check (eq_refl : exts_indep =
  fun sp => forall v nh hp, EP.Parse.Cursor.sp_net sp = Some (EP.Parse.Cursor.NtIpv6 v) ->
    EP.Parse.Slices.Ipv6HeaderSlice.next_header (EP.Parse.Slices.v6_header v) = Ok nh ->
    Cut.exts_from_slice false nh hp =
      Ok (EP.Parse.Slices.v6_exts v, EP.Parse.Slices.ipp_number (EP.Parse.Slices.v6_payload v),
          EP.Parse.Slices.ipp_slice (EP.Parse.Slices.v6_payload v)) ->
    Cut.exts_from_slice true nh hp = Cut.exts_from_slice false nh hp).

(* the builder's extension order never meets a filled slot: all shapes of Ipv6Extensions *)
Theorem C10_built_order_no_refill : forall x, norefill fill_none (kinds (ext_layout6_full x)) = true.
Proof. exact layout6_norefill. Qed.
Print Assumptions C10_built_order_no_refill.

(* the C04 exception never applies to a built packet *)
Theorem C10_built_not_stopped : forall e c p bs,
  cfg_wf c = true -> bytes_ok p -> payload_admitted c (len p) = true -> build e c p = BOk bs ->
  match c_link c with
  | LkEthernet2 _ _ =>
      Cut.from_ethernet true bs = EP.Parse.Cursor.SlicedPacket.from_ethernet bs /\
      stopped_at_ext (Cut.from_ethernet true bs) = false
  | LkNone =>
      Cut.from_ip true bs = EP.Parse.Cursor.SlicedPacket.from_ip bs /\
      stopped_at_ext (Cut.from_ip true bs) = false /\
      Cut.from_ether_type true (net_ether_type (c_net c)) bs =
        EP.Parse.Cursor.SlicedPacket.from_ether_type (net_ether_type (c_net c)) bs /\
      stopped_at_ext (Cut.from_ether_type true (net_ether_type (c_net c)) bs) = false
  | LkLinuxSll _ _ _ => True
  end.
Proof. exact built_not_stopped. Qed.
Print Assumptions C10_built_not_stopped.

Theorem C10_headers_parse_back : forall e c p bs,
  cfg_wf c = true -> bytes_ok p -> payload_admitted c (len p) = true -> build e c p = BOk bs ->
  (forall r, hdr_entry c bs = Some r -> hvres_of_h r = HOk (hexpected c (len p))) /\
  (c_link c = LkNone ->
   hvres_of_h (PacketHeaders.from_ether_type (net_ether_type (c_net c)) bs) = HOk (hexpected c (len p))).
Proof. exact headers_parse_back. Qed.
Print Assumptions C10_headers_parse_back.

(* pin the meaning *)
Check (eq_refl : hdr_entry =
  fun c bs => match c_link c with
              | LkEthernet2 _ _ => Some (PacketHeaders.from_ethernet_slice bs)
              | LkNone => Some (PacketHeaders.from_ip_slice bs)
              | LkLinuxSll _ _ _ => None
              end).
Check (eq_refl : hexpected = fun c plen => hv_of_view (icmp4_parsed_hl c) (expected_x c plen)).
Check (eq_refl : icmp4_parsed_hl =
  fun c => match c_transport c with
           | TrIcmpv4 t =>
               if ((fst (icmp4_tc t) =? 13) || (fst (icmp4_tc t) =? 14)) && (0 =? snd (icmp4_tc t)) then 20 else 8
           | _ => 8
           end).
Check (eq_refl : hv_of_view =
  fun hl4 x =>
    mkHv (match v_link x with
          | Some (VEthernet2 w) => Some (fst w, 14)
          | Some (VLinuxSll h _) => Some h
          | _ => None
          end)
         (map (fun e => match e with VVlan w => HvVlan (fst w, 4) | VMacsec h _ => HvMacsec h end) (v_exts x))
         (option_map (fun n => match n with
                               | VIpv4 h a _ => HvIpv4 h a
                               | VIpv6 h f fr xw _ => HvIpv6 h f fr xw
                               | VArp w => HvArp w
                               end) (v_net x))
         (option_map (fun t => fst (tr_hdr hl4 t)) (v_transport x))
         (match v_transport x with
          | Some t => snd (tr_hdr hl4 t)
          | None => match v_net x with
                    | Some (VIpv4 _ _ p) | Some (VIpv6 _ _ _ _ p) => HvpIp p
                    | _ => HvpEmpty
                    end
          end)).
Check (eq_refl : tr_hdr =
  fun hl4 t =>
    match t with
    | VUdp w => (HvUdp (fst w, 8), HvpUdp (fst w + 8, snd w - 8))
    | VTcp hl w => (HvTcp (fst w, hl), HvpTcp (fst w + hl, snd w - hl))
    | VIcmpv4 w => (HvIcmpv4 (fst w, hl4), HvpIcmpv4 (fst w + hl4, snd w - hl4))
    | VIcmpv6 w => (HvIcmpv6 (fst w, 8), HvpIcmpv6 (fst w + 8, snd w - 8))
    end).

(* ---- non-vacuity ---- *)
(* Ethernet II / IPv6 with hop-by-hop, routing, fragment (not fragmenting), authentication and final
   destination options headers / UDP with 3 payload bytes.  The hypotheses hold; the layout has five
   extension headers, two of them (routing, final destination options) of the raw kind 43 / 60; struct
   decoding returns exactly hexpected: the 48 byte extension area [54, 102), the UDP header (102, 8) and the
   payload (110, 3); every slot of the struct except the first destination options slot is filled, with the
   windows in wire order *)
Definition ex_exts6_full : ExtChain.Model.Exts6 :=
  ExtChain.Model.mkExts6 (Some (ExtChain.Model.mkRaw 0 0 [1; 4; 0; 0; 0; 0])) None
    (Some (ExtChain.Model.mkRouting (ExtChain.Model.mkRaw 0 0 [0; 0; 0; 0; 0; 0])
             (Some (ExtChain.Model.mkRaw 0 0 [1; 4; 0; 0; 0; 0]))))
    (Some (ExtChain.Model.mkFrag 0 0 false 99))
    (Some (ExtChain.Model.mkAuth 0 7 9 1 [1; 2; 3; 4])).
Definition ex_cfg_v6full : cfg := mkCfg (c_link ex_cfg) VlNone (NtIpv6 ex_ip6 ex_exts6_full) (TrUdp 21 1234).
Example C10_ex_headers_parse_back :
  cfg_wf ex_cfg_v6full = true /\ bytes_ok [1; 2; 3] /\ payload_admitted ex_cfg_v6full 3 = true /\
  ext_layout ex_cfg_v6full =
    [(ExtChain.Spec.KHopByHop, 8); (ExtChain.Spec.KRouting, 8); (ExtChain.Spec.KFragment, 8);
     (ExtChain.Spec.KAuth, 16); (ExtChain.Spec.KFinalDestOpts, 8)] /\
  kinds (ext_layout_full ex_cfg_v6full) = [0; 43; 44; 51; 60] /\
  hexpected ex_cfg_v6full 3 =
    mkHv (Some (0, 14)) [] (Some (HvIpv6 (14, 40) (Some 0) false (54, 48))) (Some (HvUdp (102, 8)))
         (HvpUdp (110, 3)) /\
  exists bs, build LE ex_cfg_v6full [1; 2; 3] = BOk bs /\ len bs = 113 /\
    hdr_entry ex_cfg_v6full bs = Some (PacketHeaders.from_ethernet_slice bs) /\
    hvres_of_h (PacketHeaders.from_ethernet_slice bs) = HOk (hexpected ex_cfg_v6full 3) /\
    stopped_at_ext (Cut.from_ethernet true bs) = false /\
    exists hp hd x, PacketHeaders.from_ethernet_slice bs = Ok hp /\ h_net hp = Some (HnIp (IhV6 hd x)) /\
      map (fun k => option_map win_of (EP.Parse.HdrSlots.slot_get x k))
          [EP.Parse.HdrSlots.SHbh; EP.Parse.HdrSlots.SDest; EP.Parse.HdrSlots.SRoute;
           EP.Parse.HdrSlots.SFdest; EP.Parse.HdrSlots.SFrag; EP.Parse.HdrSlots.SAuth] =
        [Some (54, 8); None; Some (62, 8); Some (94, 8); Some (70, 8); Some (78, 16)].
Proof.
  split; [vm_compute; reflexivity|]. split; [apply bytes_okb_spec; vm_compute; reflexivity|].
  split; [vm_compute; reflexivity|]. split; [vm_compute; reflexivity|]. split; [vm_compute; reflexivity|].
  split; [vm_compute; reflexivity|].
  eexists. split; [vm_compute; reflexivity|]. split; [vm_compute; reflexivity|]. split; [reflexivity|].
  split; [vm_compute; reflexivity|]. split; [vm_compute; reflexivity|].
  do 3 eexists. split; [vm_compute; reflexivity|]. split; [reflexivity|]. vm_compute; reflexivity.
Qed.
(* no link header: from_ip_slice and from_ether_type on a raw Unknown{type 13, code 0} ICMPv4 message of 20
   bytes (the parser reads it as a timestamp message: header 20, payload 0) *)
Example C10_ex_headers_parse_back_nolink :
  cfg_wf ex_cfg_nolink = true /\ payload_admitted ex_cfg_nolink 12 = true /\ icmp4_parsed_hl ex_cfg_nolink = 20 /\
  exists bs, build LE ex_cfg_nolink (repeat 7 12) = BOk bs /\
    hvres_of_h (PacketHeaders.from_ip_slice bs) = HOk (hexpected ex_cfg_nolink 12) /\
    hvres_of_h (PacketHeaders.from_ether_type 2048 bs) = HOk (hexpected ex_cfg_nolink 12) /\
    hexpected ex_cfg_nolink 12 =
      mkHv None [] (Some (HvIpv4 (0, 20) None)) (Some (HvIcmpv4 (20, 20))) (HvpIcmpv4 (40, 0)).
Proof.
  split; [vm_compute; reflexivity|]. split; [vm_compute; reflexivity|]. split; [vm_compute; reflexivity|].
  eexists. split; [vm_compute; reflexivity|]. vm_compute. repeat split.
Qed.

(* ---- "strict parsing recovers the supplied addresses, ports, flags, options ..." stated on
   the values the ACCESSORS of the SlicedPacket result return for the built bytes.
   Composition (Builder/FieldsBack.v, FieldsBack2.v, FieldsBack3.v; no new model of Rust code):
     C10_crate_parse_back   the slicer model returns Ok sp on the built bytes, view sp = expected_x
     C03_fields_from_*      fields_of_packet sp (Parse/Fields.v: the accessor models of Parse/Access.v on the slices
                            stored in sp) = spec_fields bs (view sp) (the RFC fields at the layers' positions)
     evaluation             spec_fields bs (expected_x c |p|) = cfg_fields ..: layer by layer the field specification
                            is evaluated on the encoders of the builder model (C08 / C09 / C15 layouts).
   cfg_fields e c |p| ck xf is written from the configuration alone (pinned below):
     Ethernet II   destination, source (48 bit numbers), ether type = link_announces c
     Linux SLL     packet type, ARPHRD 1, address length, the 8 address octets, protocol = ether type of the net layer
     802.1Q tag(s) PCP, DEI, VID as supplied, ether type 0x8100 (outer of two) / the net layer's
     ARP           hardware / protocol type, sizes = the lengths of the sender addresses, operation, the four addresses
     IPv4          ipv4_cfg (v4_final ..): version 4, IHL = 5 + |options| / 4, and every field of the serialised header
                   v4_final (C10_consistent_ipv4: DSCP, ECN, identification, DF, MF, fragment offset, TTL, source,
                   destination, options AS SUPPLIED; total length = actual size, protocol = next layer, checksum)
     IPv4 AH       next header = transport number, payload len = icv words + 1, SPI, sequence number, ICV as supplied
     IPv6          ipv6_cfg (v6_final ..): version 6, traffic class, flow label, hop limit, source, destination as
                   supplied (C10_consistent_ipv6), payload length = actual size, next header = first following header
     UDP           ports as supplied, length 8 + |p|, checksum ck
     TCP           ports, sequence / acknowledgment number, data offset 5 + |options| / 4, NS CWR ECE URG ACK PSH RST SYN
                   FIN, window, checksum ck, urgent pointer, options = the visible option bytes, all as supplied
     ICMPv4/v6     type, code, checksum ck and octets 4..8 of the RFC 792 / 4443 layout of the configured message
   ck = the transport checksum field, ck_is_rfc: the RFC 1071 value over pseudo header ++ segment with the field zeroed
   (C10_checksums_verify).  Fragmenting configurations: no transport layer in the list (the slicer stops there).
   PARTIAL in one respect: xf, the layers of the IPv6 EXTENSION HEADERS, is `ext6_fields bs c` = the C03 field
   specification of the extension area [off_exts, off_exts + header_len) of the built bytes walked from the number the
   IPv6 header announces (kinds / order / lengths: C10_next_protocol_fields, values: C10_layers_as_configured via the
   C12 decoder) -- it is not evaluated to the configured header values here.  Full statement intended:
     forall e c p bs, cfg_wf c = true -> bytes_ok p -> payload_admitted c (len p) = true -> build e c p = BOk bs ->
       exists sp ck, crate_entry c bs = Ok sp /\ fields_of_packet sp = Ok (cfg_fields e c (len p) ck (ext6_cfg c))
   with ext6_cfg c the per-header lists (next header, length octet, payload / fragment offset, M, identification /
   AH fields) of the configured Ipv6Extensions in RFC 8200 order.  C10_crate_fields_back is that statement for every
   configuration WITHOUT IPv6 extension headers (all link / VLAN / ARP / IPv4 (+options, +AH) / IPv6 / transport
   paths); C10_crate_fields_back_partial covers the rest with xf as described. *)
From EP Require Import Parse.Fields.
From EP Require Import Builder.FieldsBack Builder.FieldsBack2 Builder.FieldsBack3.

Theorem C10_crate_fields_back : forall e c p bs,
  cfg_wf c = true -> bytes_ok p -> payload_admitted c (len p) = true -> build e c p = BOk bs ->
  v6_exts_len c = 0 ->
  exists sp ck, crate_entry c bs = Ok sp /\ view sp = expected_x c (len p) /\
    ck < 65536 /\ ck_is_rfc c bs ck /\
    fields_of_packet sp = Ok (cfg_fields e c (len p) ck []).
Proof. exact crate_fields_back. Qed.
Print Assumptions C10_crate_fields_back.

Theorem C10_crate_fields_back_partial : forall e c p bs,
  cfg_wf c = true -> bytes_ok p -> payload_admitted c (len p) = true -> build e c p = BOk bs ->
  exists sp ck, crate_entry c bs = Ok sp /\ view sp = expected_x c (len p) /\
    ck < 65536 /\ ck_is_rfc c bs ck /\
    fields_of_packet sp = Ok (cfg_fields e c (len p) ck (ext6_fields bs c)).
Proof. exact crate_fields_back_partial. Qed.
Print Assumptions C10_crate_fields_back_partial.

(* SlicedPacket::from_ether_type on a packet built without link layer: the same list *)
Theorem C10_crate_fields_back_ether_type : forall e c p bs,
  cfg_wf c = true -> bytes_ok p -> payload_admitted c (len p) = true -> build e c p = BOk bs ->
  c_link c = LkNone ->
  exists sp ck, EP.Parse.Cursor.SlicedPacket.from_ether_type (net_ether_type (c_net c)) bs = Ok sp /\
    ck < 65536 /\ ck_is_rfc c bs ck /\
    fields_of_packet sp = Ok (cfg_fields e c (len p) ck (ext6_fields bs c)).
Proof. exact crate_fields_back_ether_type. Qed.
Print Assumptions C10_crate_fields_back_ether_type.

(* the evaluation step alone, for EVERY well-formed configuration that builds (no payload hypothesis): the RFC
   fields at the configured offsets of the built bytes are the configured values *)
Theorem C10_fields_at_offsets : forall e c p bs, cfg_wf c = true -> bytes_ok p -> build e c p = BOk bs ->
  exists ck, ck < 65536 /\
    (ck_pseudo c (len (drop (off_transport c) bs)) <> None -> is_fragmented_x c = false ->
     ck = W bs (off_transport c + ck_field_off (c_transport c))) /\
    spec_fields bs (expected_x c (len p)) = cfg_fields e c (len p) ck (ext6_fields bs c).
Proof. exact spec_fields_built. Qed.
Print Assumptions C10_fields_at_offsets.

(* pin the meaning *)
Check (eq_refl : cfg_fields = fun e c plen ck xf =>
  cfg_link_fields c ++ cfg_vlan_fields c ++ cfg_net_fields e c plen xf ++ cfg_tr_fields c plen ck).
Check (eq_refl : cfg_link_fields = fun c =>
  match c_link c with
  | LkNone => []
  | LkEthernet2 s d => [(LEth, [(Fdst, FvN (be_num d)); (Fsrc, FvN (be_num s)); (Fether_type, FvN (link_announces c))])]
  | LkLinuxSll pt vl a =>
      [(LSll, [(Fpacket_type, FvN pt); (Fhw_type, FvN 1); (Faddr_len, FvN vl); (Faddr, FvBytes a);
               (Fprotocol, FvN (net_ether_type (c_net c)))])]
  end).
Check (eq_refl : vlan_cfgf = fun v et =>
  [(Fpcp, FvN (BitFields.Model.vlan_pcp v)); (Fdei, FvB (BitFields.Model.vlan_dei v));
   (Fvid, FvN (BitFields.Model.vlan_id v)); (Fether_type, FvN et)]).
Check (eq_refl : cfg_net_fields = fun e c plen xf =>
  match c_net c with
  | NtIpv4 h x =>
      (LIpv4, ipv4_cfg (v4_final e h x (c_transport c) plen)) ::
      match ExtChain.Model.auth4 x with
      | Some a => [(LAuth, ah_cfg (ExtChain.Model.auth_set_next_header a (tr_ip_number (c_transport c))))]
      | None => []
      end
  | NtIpv6 h x => (LIpv6, ipv6_cfg (v6_final h x (c_transport c) plen)) :: xf
  | NtArp a => [(LArp, arp_cfg a)]
  end).
Check (eq_refl : ipv4_cfg = fun h =>
  [(Fversion, FvN 4); (Fihl, FvN (5 + Ipv4.i4o_len (Ipv4.i4_options h) / 4));
   (Fdscp, FvN (Ipv4.i4_dscp h)); (Fecn, FvN (Ipv4.i4_ecn h)); (Ftotal_len, FvN (Ipv4.i4_total_len h));
   (Fident, FvN (Ipv4.i4_identification h)); (Fdf, FvB (Ipv4.i4_dont_fragment h));
   (Fmf, FvB (Ipv4.i4_more_fragments h)); (Ffrag_off, FvN (Ipv4.i4_fragment_offset h));
   (Fttl, FvN (Ipv4.i4_time_to_live h)); (Fprotocol, FvN (Ipv4.i4_protocol h));
   (Fchecksum, FvN (Ipv4.i4_header_checksum h));
   (Fsrc, FvN (be_num (Ipv4.i4_source h))); (Fdst, FvN (be_num (Ipv4.i4_destination h)));
   (Foptions, FvBytes (take (Ipv4.i4o_len (Ipv4.i4_options h)) (Ipv4.i4o_buf (Ipv4.i4_options h))))]).
Check (eq_refl : ipv6_cfg = fun h =>
  [(Fversion, FvN 6); (Ftraffic_class, FvN (BitFields.Model.v6_traffic_class h));
   (Fflow_label, FvN (BitFields.Model.v6_flow_label h)); (Fpayload_len, FvN (BitFields.Model.v6_payload_length h));
   (Fnext_header, FvN (BitFields.Model.v6_next_header h)); (Fhop_limit, FvN (BitFields.Model.v6_hop_limit h));
   (Fsrc, FvBytes (BitFields.Model.v6_source h)); (Fdst, FvBytes (BitFields.Model.v6_destination h))]).
Check (eq_refl : tcp_cfg = fun t ck =>
  [(Fsrc_port, FvN (Tcp.source_port t)); (Fdst_port, FvN (Tcp.destination_port t));
   (Fseq, FvN (Tcp.sequence_number t)); (Fack_nr, FvN (Tcp.acknowledgment_number t));
   (Fdata_offset, FvN (5 + Tcp.o_len (Tcp.options t) / 4));
   (Fns, FvB (Tcp.ns t)); (Fcwr, FvB (Tcp.cwr t)); (Fece, FvB (Tcp.ece t)); (Furg, FvB (Tcp.urg t));
   (Fack, FvB (Tcp.ack t)); (Fpsh, FvB (Tcp.psh t)); (Frst, FvB (Tcp.rst t)); (Fsyn, FvB (Tcp.syn t));
   (Ffin, FvB (Tcp.fin t)); (Fwindow, FvN (Tcp.window_size t)); (Fchecksum, FvN ck);
   (Furgent, FvN (Tcp.urgent_pointer t));
   (Foptions, FvBytes (take (Tcp.o_len (Tcp.options t)) (Tcp.o_buf (Tcp.options t))))]).
Check (eq_refl : cfg_tr_fields = fun c plen ck =>
  match c_net c with
  | NtArp _ => []
  | _ =>
    if is_fragmented_x c then []
    else match c_transport c with
         | TrNone _ => []
         | TrUdp sp dp =>
             [(LUdp, [(Fsrc_port, FvN sp); (Fdst_port, FvN dp); (Flength, FvN (8 + plen)); (Fchecksum, FvN ck)])]
         | TrTcp t => [(LTcp, tcp_cfg t ck)]
         | TrIcmpv4 t => [(LIcmp4, icmp_cfg (Checksum.ProtoSpec.icmp4_wire (c09_icmp4 t) 0) ck)]
         | TrIcmpv6 t => [(LIcmp6, icmp_cfg (Checksum.ProtoSpec.icmp6_wire (c09_icmp6 t) 0) ck)]
         end
  end).
Check (eq_refl : icmp_cfg = fun w0 ck =>
  [(Ftype, FvN (B w0 0)); (Fcode, FvN (B w0 1)); (Fchecksum, FvN ck); (Fbytes4to8, FvBytes (take 4 (drop 4 w0)))]).
Check (eq_refl : ck_is_rfc = fun c bs ck =>
  let seg := drop (off_transport c) bs in
  forall ph, ck_pseudo c (len seg) = Some ph -> is_fragmented_x c = false ->
    ck = ck_value (c_transport c) (rfc1071 (ph ++ zero16_at (ck_field_off (c_transport c)) seg))).

(* ---- non-vacuity ---- *)
(* the documentation example (Ethernet II / IPv4 / UDP, 8 payload bytes): the hypotheses hold, no IPv6 extension
   headers, and the accessors return the supplied MAC addresses, IPv4 addresses 192.168.1.1 -> 192.168.1.2, TTL 20,
   DF, ports 21 -> 1234, with the derived total length 36, protocol 17, UDP length 16 and the two checksums *)
Example C10_ex_crate_fields_back :
  cfg_wf ex_cfg = true /\ bytes_ok ex_payload /\ payload_admitted ex_cfg 8 = true /\
  build LE ex_cfg ex_payload = BOk ex_bytes /\ v6_exts_len ex_cfg = 0 /\
  exists sp, crate_entry ex_cfg ex_bytes = Ok sp /\
    fields_of_packet sp = Ok (cfg_fields LE ex_cfg 8 26495 []) /\
    cfg_fields LE ex_cfg 8 26495 [] =
      [(LEth, [(Fdst, FvN 7731092785932); (Fsrc, FvN 1108152157446); (Fether_type, FvN 2048)]);
       (LIpv4, [(Fversion, FvN 4); (Fihl, FvN 5); (Fdscp, FvN 0); (Fecn, FvN 0); (Ftotal_len, FvN 36);
                (Fident, FvN 0); (Fdf, FvB true); (Fmf, FvB false); (Ffrag_off, FvN 0); (Fttl, FvN 20);
                (Fprotocol, FvN 17); (Fchecksum, FvN 58229); (Fsrc, FvN 3232235777); (Fdst, FvN 3232235778);
                (Foptions, FvBytes [])]);
       (LUdp, [(Fsrc_port, FvN 21); (Fdst_port, FvN 1234); (Flength, FvN 16); (Fchecksum, FvN 26495)])].
Proof.
  split; [vm_compute; reflexivity|]. split; [apply bytes_okb_spec; vm_compute; reflexivity|].
  split; [vm_compute; reflexivity|]. split; [vm_compute; reflexivity|]. split; [vm_compute; reflexivity|].
  eexists. split; [vm_compute; reflexivity|]. vm_compute. repeat split.
Qed.
(* two VLAN tags / IPv6 with hop-by-hop + fragment header / TCP with options (C10_crate_fields_back_partial): the
   accessor values of link, both tags, IPv6 and TCP are the supplied ones; on this instance the extension part
   ext6_fields evaluates to the two configured headers *)
Example C10_ex_crate_fields_back_x :
  cfg_wf ex_cfg_tcp6 = true /\ payload_admitted ex_cfg_tcp6 3 = true /\ v6_exts_len ex_cfg_tcp6 = 16 /\
  exists bs sp ck, build LE ex_cfg_tcp6 [1; 2; 3] = BOk bs /\
    EP.Parse.Cursor.SlicedPacket.from_ethernet bs = Ok sp /\
    fields_of_packet sp = Ok (cfg_fields LE ex_cfg_tcp6 3 ck (ext6_fields bs ex_cfg_tcp6)) /\
    ext6_fields bs ex_cfg_tcp6 =
      [(LHopByHop, [(Fnext_header, FvN 44); (Flen_byte, FvN 0); (Fpayload, FvBytes [1; 4; 0; 0; 0; 0])]);
       (LFragment, [(Fnext_header, FvN 6); (Ffrag_off, FvN 0); (Fmf, FvB false); (Fident, FvN 99)])] /\
    cfg_vlan_fields ex_cfg_tcp6 =
      [(LVlan, [(Fpcp, FvN 1); (Fdei, FvB false); (Fvid, FvN 100); (Fether_type, FvN 33024)]);
       (LVlan, [(Fpcp, FvN 2); (Fdei, FvB true); (Fvid, FvN 200); (Fether_type, FvN 34525)])] /\
    cfg_tr_fields ex_cfg_tcp6 3 ck =
      [(LTcp, [(Fsrc_port, FvN 80); (Fdst_port, FvN 40000); (Fseq, FvN 305419896); (Fack_nr, FvN 2271560481);
               (Fdata_offset, FvN 6); (Fns, FvB true); (Fcwr, FvB false); (Fece, FvB true); (Furg, FvB false);
               (Fack, FvB true); (Fpsh, FvB true); (Frst, FvB false); (Fsyn, FvB true); (Ffin, FvB false);
               (Fwindow, FvN 65535); (Fchecksum, FvN ck); (Furgent, FvN 7); (Foptions, FvBytes [2; 4; 5; 180])])].
Proof.
  split; [vm_compute; reflexivity|]. split; [vm_compute; reflexivity|]. split; [vm_compute; reflexivity|].
  eexists. eexists. eexists. split; [vm_compute; reflexivity|]. split; [vm_compute; reflexivity|].
  split; [vm_compute; reflexivity|]. split; [vm_compute; reflexivity|]. vm_compute. repeat split.
Qed.
