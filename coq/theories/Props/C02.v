(* Props/C02.v -- property C02: decoders are total.  In the model a panic site
   (unwrap/expect, checked indexing, usize underflow, push on a full ArrayVec) and
   an exhausted loop bound are `Bug site` values as well; totality is the statement
   that they are unreachable.  Each theorem is the named lemma of the
   proof files; the Examples are test vectors checked by evaluation. *)
From EP Require Parse.GenAccessOk.   (* the field accessors, re-translated from the Rust source on every run (Gen/Accessors.v), equal the hand models the theorems below are about *)
From EP Require Parse.ConstsOk.
From EP Require Import Base.Bytes Parse.Types Parse.Slices Parse.Cursor Parse.View
  Parse.WireSpec Parse.StrictProofs.

Theorem C02_strict_total : forall bs et, bytes_ok bs ->
  (exists r, vres_of (SlicedPacket.from_ethernet bs) = r /\ forall b, r <> VBug b) /\
  (forall b, SlicedPacket.from_linux_sll bs <> Bug b) /\
  (forall b, SlicedPacket.from_ether_type et bs <> Bug b) /\
  (forall b, SlicedPacket.from_ip bs <> Bug b).
Proof. exact strict_total. Qed.
Print Assumptions C02_strict_total.

(* ======================================================================== *)
(* Accessors, conversions and iterators reachable from the strict slice types
   (Parse/Access.v): unwrap / expect / checked indexing / usize subtraction are
   `Bug` values of the model, the iterator loop has a fuel whose exhaustion is a
   `Bug` as well.  Proofs in Parse/AccessProofs.v. *)
From EP Require Import Parse.Access Parse.AccessProofs.

(* every accessor / to_header / to_packet / iterator run on every component of every
   strict whole-packet result returns normally (Ok, or the one documented Err of
   Ipv4HeaderSlice::payload_len) *)
Theorem C02_accessors_total : forall bs et p, bytes_ok bs -> entry bs et p ->
  forall r, In r (SlicedPacketA.accessors p) -> r = Ok tt \/ exists e, r = Err e.
Proof. exact packet_accessors_total. Qed.
Print Assumptions C02_accessors_total.

(* IpAuthHeaderSlice::to_header: IpAuthHeader::new(..).unwrap() cannot fail (ICV length
   (p+2)*4-12 is a multiple of 4 and <= 1016) *)
Theorem C02_auth_to_header_unwrap : forall s h,
  IpAuthHeaderSlice.from_slice s = Ok h -> bytes_ok (snd s) ->
  exists v, IpAuthHeaderA.to_header h = Ok v.
Proof. exact auth_to_header_unwrap. Qed.
Print Assumptions C02_auth_to_header_unwrap.

(* Ipv6RawExtHeaderSlice::to_header: new_raw(..).unwrap() cannot fail (payload length
   (b+1)*8-2 lies in [6,2046] and (len+2) mod 8 = 0) *)
Theorem C02_raw_ext_to_header_unwrap : forall s h,
  Ipv6RawExtHeaderSlice.from_slice s = Ok h -> bytes_ok (snd s) ->
  exists v, Ipv6RawExtHeaderA.to_header h = Ok v.
Proof. exact raw_ext_to_header_unwrap. Qed.
Print Assumptions C02_raw_ext_to_header_unwrap.

(* the extension iterator over every Ipv6ExtensionsSlice that from_slice returns (for
   EVERY start number and slice): the loop `for h in exts` ends within length+1 calls of
   next without Bug (no out-of-fuel, no unchecked failure), yields at most len/8 items,
   and the yielded header windows tile the exts window exactly (progress: each item
   starts where the previous one ended) *)
Theorem C02_exts_iter_bounded : forall nh s x nx rest,
  Ipv6ExtensionsSlice.from_slice nh s = Ok (x, nx, rest) ->
  exists l, Ipv6ExtIterA.items x = Ok l /\
            8 * len l <= s_len (x6_slice x) /\
            tiles (s_off (x6_slice x)) (map item_win l) (s_off (x6_slice x) + s_len (x6_slice x)) /\
            Forall item_wf l /\
            Forall (fun i => sub_of (ext_item_slice i) (x6_slice x)) l.
Proof. exact exts_iter_bounded. Qed.
Print Assumptions C02_exts_iter_bounded.

(* the same for the IPv6 slice of every strict whole-packet result *)
Theorem C02_packet_exts_iter_bounded : forall bs et p v,
  entry bs et p -> sp_net p = Some (NtIpv6 v) ->
  exists l, Ipv6ExtIterA.items (v6_exts v) = Ok l /\
            8 * len l <= s_len (x6_slice (v6_exts v)) /\
            tiles (s_off (x6_slice (v6_exts v))) (map item_win l)
                  (s_off (x6_slice (v6_exts v)) + s_len (x6_slice (v6_exts v))).
Proof. exact packet_exts_iter_bounded. Qed.
Print Assumptions C02_packet_exts_iter_bounded.

(* ---- non-vacuity ---------------------------------------------------------- *)
(* IPv6 / hop-by-hop / destination options / fragment (offset 0, last) / UDP *)
Definition ex6_pkt_tot : bytes :=
  [96;0;0;0; 0;32; 0; 64] ++ repeat 1 16 ++ repeat 2 16 ++
  [60;0;0;0;0;0;0;0] ++ [44;0;1;4;0;0;0;0] ++ [17;0;0;0;0;0;0;1] ++ [0;1;0;2;0;8;0;0].

Example C02_exts_iter_ex :
  bytes_ok ex6_pkt_tot /\
  match SlicedPacket.from_ip ex6_pkt_tot with
  | Ok (mkSliced _ _ (Some (NtIpv6 v)) (Some (TrUdp _)) as p) =>
      (forallb (fun r => match r with Ok _ => true | _ => false end) (SlicedPacketA.accessors p),
       match Ipv6ExtIterA.items (v6_exts v) with Ok l => Some (map item_win l) | _ => None end,
       win_of (x6_slice (v6_exts v)))
  | _ => (false, None, (0, 0))
  end = (true, Some [(40, 8); (48, 8); (56, 8)], (40, 24)).
Proof. split; [apply bytes_okb_spec; vm_compute; reflexivity|vm_compute; reflexivity]. Qed.

(* an authentication header with payload_len 4 (24 bytes, 12 bytes ICV) and a routing header
   of 16 bytes: both conversions succeed; the unwrap sites are reachable in the model *)
Example C02_unwrap_ex :
  (let s := mk_slice ([17;4;0;0; 0;0;0;1; 0;0;0;2] ++ repeat 9 12 ++ [255]) in
   match IpAuthHeaderSlice.from_slice s with
   | Ok h => (s_len h, IpAuthHeaderA.to_header h)
   | _ => (0, Bug 0)
   end) = (24, Ok (17, 1, 2, 3, repeat 9 12)) /\
  (let s := mk_slice ([6;1] ++ repeat 7 14 ++ [255]) in
   match Ipv6RawExtHeaderSlice.from_slice s with
   | Ok h => (s_len h, Ipv6RawExtHeaderA.to_header h)
   | _ => (0, Bug 0)
   end) = (16, Ok (6, 1, repeat 7 14)) /\
  IpAuthHeaderA.to_header (mk_slice [17;0;0;0;0;0;0;0;0;0;0;0;0;0]) = Bug SITE_UNWRAP.
Proof. vm_compute. repeat split. Qed.

(* ---- the other decoder families: panic sites (unwrap/expect, indexing, push on
   a full ArrayVec, usize underflow) and loop bounds are the same `Bug` values;
   restated here so that C02 lists every family it rests on.  The TCP option
   iterator (C13_in_bounds, C13_bounded, C13_exhausted), the NDP option iterator
   (C17_ndp_options), defragmentation (C11_no_panic), extension chain walkers
   (C12_write_iff_walk), readers (C16_readers_total) and the builder
   (C10_never_panics) are stated in their own Props files. *)
From EP Require Import Parse.Repr Parse.LaxSlices Parse.LaxCursor Parse.LaxWire Parse.LaxWireProofs
  Parse.HdrModel Parse.HdrProofs3.

Theorem C02_lax_total : forall bs et b, bytes_ok bs ->
  LaxSlicedPacket.from_ethernet bs <> Bug b /\
  LaxSlicedPacket.from_ether_type et bs <> Bug b /\
  LaxSlicedPacket.from_ip bs <> Bug b.
Proof. exact lax_never_bug. Qed.
Print Assumptions C02_lax_total.

Theorem C02_headers_total : forall bs et b, bytes_ok bs ->
  PacketHeaders.from_ethernet_slice bs <> Bug b /\
  PacketHeaders.from_ether_type et bs <> Bug b /\
  PacketHeaders.from_ip_slice bs <> Bug b.
Proof. exact hdr_never_bug_raw. Qed.
Print Assumptions C02_headers_total.

(* ======================================================================== *)
(* Totality of everything reachable from the LAX results (Parse/LaxAccess.v,
   proofs Parse/LaxAccessProofs.v + LaxAccessPacket.v) and of IpSlice::to_header
   (proof Parse/LaxAccessToHeader.v). *)
From EP Require Import Parse.LaxAccess Parse.LaxAccessProofs Parse.LaxAccessPacket Parse.LaxAccessToHeader.

(* every accessor / conversion / iterator / packet-level accessor run on every lax
   whole-packet result returns normally (Ok, or the one documented Err of
   Ipv4HeaderSlice::payload_len); together with C02_lax_total: the entry point itself
   returns Ok or Err for every input *)
Theorem C02_lax_accessors_total : forall bs et p, bytes_ok bs -> lax_entry bs et p ->
  forall r, In r (LaxSlicedPacketA.accessors p) -> r = Ok tt \/ exists e, r = Err e.
Proof. exact lax_packet_accessors_total. Qed.
Print Assumptions C02_lax_accessors_total.

(* the extension iterator over every Ipv6ExtensionsSlice that from_slice_lax returns, for
   EVERY start number, slice and stop error: ends within length+1 calls of next, no Bug, at
   most len/8 items, the yielded windows tile the stored slice (progress) *)
Theorem C02_lax_exts_iter_bounded : forall nh s x nx rest err,
  LaxIpv6Exts.from_slice_lax nh s = Ok (x, nx, rest, err) ->
  exists l, Ipv6ExtIterA.items x = Ok l /\
            8 * len l <= s_len (x6_slice x) /\
            tiles (s_off (x6_slice x)) (map item_win l) (s_off (x6_slice x) + s_len (x6_slice x)) /\
            Forall item_wf l /\
            Forall (fun i => sub_of (ext_item_slice i) (x6_slice x)) l.
Proof. exact lax_exts_iter_items. Qed.
Print Assumptions C02_lax_exts_iter_bounded.

(* IpSlice::to_header: for every IpSlice / Ipv4Slice / Ipv6Slice produced by a strict
   from_slice (`from_strict s i`), the conversion returns normally.  IPv6 arm: the struct
   decoder Ipv6Extensions::from_slice, run on the stored extension window with the
   header's next_header, returns Ok -- the `expect` cannot fail (it may have stopped early
   at a refilled header: see the example) *)
Theorem C02_ip_slice_to_header_expect : forall s i,
  from_strict s i -> bytes_ok (snd s) -> IpSliceToHeaderA.to_header i = Ok tt.
Proof. exact ip_slice_to_header_ok. Qed.
Print Assumptions C02_ip_slice_to_header_expect.

Theorem C02_ipv6_exts_expect : forall s v,
  from_strict s (IpV6 v) -> bytes_ok (snd s) ->
  exists x, IpSliceToHeaderA.v6_exts_to_header v = Ok x.
Proof. exact v6_exts_to_header_ok. Qed.
Print Assumptions C02_ipv6_exts_expect.

(* a chain accepted by the slice walker is accepted again on the window it stored *)
Theorem C02_exts_window_reaccepted : forall nh s x nx rest,
  Ipv6ExtensionsSlice.from_slice nh s = Ok (x, nx, rest) ->
  exists x' rest', Ipv6ExtensionsSlice.from_slice nh (x6_slice x) = Ok (x', nx, rest').
Proof. exact exts_trunc. Qed.
Print Assumptions C02_exts_window_reaccepted.

(* ---- non-vacuity ---------------------------------------------------------- *)
(* IPv6 / destination options / destination options / UDP: the slice walker accepts both
   headers (window 40+16, iterator yields two items); the struct decoder fills its single
   slot with the first and stops in front of the second -- Ok, no error: to_header = Ok *)
Definition ex_refill : bytes :=
  [96;0;0;0; 0;24; 60; 64] ++ repeat 1 16 ++ repeat 2 16 ++
  [60;0;0;0;0;0;0;0] ++ [17;0;0;0;0;0;0;0] ++ [0;1;0;2;0;8;0;0].

Example C02_to_header_ex :
  bytes_ok ex_refill /\
  match IpSlice.from_slice (mk_slice ex_refill) with
  | Ok (IpV6 v as i) =>
      (win_of (x6_slice (v6_exts v)), IpSliceToHeaderA.to_header i,
       match IpSliceToHeaderA.v6_exts_to_header v with
       | Ok x => Some (option_map win_of (HdrModel.x_dest x), option_map win_of (HdrModel.x_fdest x))
       | _ => None
       end,
       match Ipv6ExtIterA.items (v6_exts v) with Ok l => Some (map item_win l) | _ => None end)
  | _ => ((0, 0), Bug 0, None, None)
  end = ((40, 16), Ok tt, Some (Some (40, 8), None), Some [(40, 8); (48, 8)]) /\
  (* the expect site is reachable in the model: a window the walker did not validate *)
  IpSliceToHeaderA.v6_exts_to_header
    (mkIpv6Slice (mk_slice (firstn 40 ex_refill)) (mkIpv6Exts (Some 60) false (40, [60;0;0;0])) 
       (mkIpPayload 17 false LsSlice (44, []))) = Bug SITE_UNWRAP.
Proof. split; [apply bytes_okb_spec; vm_compute; reflexivity|]. vm_compute. repeat split. Qed.

(* the cut chain of C01_lax_cut_chain_ex: the iterator run on the lax result ends after one item *)
Example C02_lax_exts_iter_ex :
  match LaxSlicedPacket.from_ip ([96;0;0;0; 0;8; 60; 64] ++ repeat 0 32 ++ [43;0;0;0;0;0;0;0]) with
  | Ok p =>
      (forallb (fun r => match r with Ok _ => true | _ => false end) (LaxSlicedPacketA.accessors p),
       match lsp_net p with
       | Some (LNtIpv6 v) =>
           match Ipv6ExtIterA.items (lv6_exts v) with Ok l => Some (map item_win l) | _ => None end
       | _ => None
       end)
  | _ => (false, None)
  end = (true, Some [(40, 8)]).
Proof. vm_compute. reflexivity. Qed.

(* ======================================================================== *)
(* The strict single-layer CONSTRUCTORS are total on every slice value: for an arbitrary
   standalone slice (any pointer offset, any contents -- no byte-range hypothesis --, any
   length, accepted or rejected) each run `returns`: it is Ok _ or Err _, never a panic
   site, a failing unchecked primitive or an exhausted loop bound (the extension walk of
   Ipv6ExtensionsSlice::from_slice ends within length + 1 iterations: every continuing
   iteration consumes at least 8 bytes).  Same list as C01_single_layer_ctor_no_oob.
   Proofs: Parse/CtorsTotal.v. *)
From EP Require Import Parse.CtorsTotal.

Theorem C02_single_layer_ctor_total : forall s,
  returns (Ethernet2A.from_slice_without_fcs s) /\ returns (Ethernet2A.from_slice_with_crc32_fcs s) /\
  returns (LinuxSll.header_from_slice s) /\ returns (LinuxSll.from_slice s) /\
  returns (SingleVlanSlice.from_slice s) /\
  returns (Macsec.header_from_slice s) /\ returns (Macsec.from_slice s) /\
  returns (ArpPacketSlice.from_slice s) /\
  returns (Ipv4HeaderSlice.from_slice s) /\ returns (Ipv4Slice.from_slice s) /\
  returns (Ipv6HeaderSlice.from_slice s) /\ returns (Ipv6Slice.from_slice s) /\
  returns (IpSlice.from_slice s) /\
  returns (IpAuthHeaderSlice.from_slice s) /\ returns (Ipv6RawExtHeaderSlice.from_slice s) /\
  returns (Ipv6FragmentHeaderSlice.from_slice s) /\
  (forall nh, returns (Ipv6ExtensionsSlice.from_slice nh s)) /\
  returns (UdpSlice.header_from_slice s) /\ returns (UdpSlice.from_slice s) /\
  returns (UdpSlice.from_slice_lax s) /\
  returns (TcpHeaderSliceA.from_slice s) /\ returns (TcpSlice.from_slice s) /\
  returns (Icmpv4Slice.from_slice s) /\ returns (Icmpv6Slice.from_slice s).
Proof. exact single_layer_ctor_returns. Qed.
Print Assumptions C02_single_layer_ctor_total.

(* the extension walk in isolation: any fuel above the length of what is left suffices *)
Theorem C02_exts_walk_fuel : forall fuel start_len rest nh fr,
  (N.to_nat (s_len rest) < fuel)%nat -> s_len rest <= start_len ->
  nobug (Ipv6ExtensionsSlice.walk fuel start_len rest nh fr).
Proof. exact nb_walk. Qed.
Print Assumptions C02_exts_walk_fuel.

(* ---- fixed-width overflow (Parse/UsizeBounds.v) ------------------------------------
   Overflow of a usize `+` / `*` is not a failure value of the models of Parse/Slices.v
   (they compute in N).  For the strict single-layer constructors that add or multiply,
   the copies with every such operation CHECKED against a usize of M values
   (addC / mulC: Bug SITE_OVERFLOW when the exact result is >= M) are EQUAL to the models,
   for every M >= 2^17 -- 32-bit and 64-bit usize included -- and every slice of bytes,
   of any length: all operands are widened u8 / u16 fields or constants.  The remaining
   constructors contain no usize addition or multiplication.  Not covered: the offset
   bookkeeping (cursor offset + header length / pointer difference, layer_start_offset
   fix-ups of LenErrors), the accessors and conversions, the lax and struct decoders. *)
From EP Require Import Parse.UsizeBounds.

Theorem C02_no_usize_overflow : forall M s, 2 ^ 17 <= M -> bytes_ok (snd s) ->
  macsec_header_from_slice M s = Macsec.header_from_slice s /\
  macsec_from_slice M s = Macsec.from_slice s /\
  arp_from_slice M s = ArpPacketSlice.from_slice s /\
  ipv4_header_from_slice M s = Ipv4HeaderSlice.from_slice s /\
  auth_from_slice M s = IpAuthHeaderSlice.from_slice s /\
  raw_from_slice M s = Ipv6RawExtHeaderSlice.from_slice s /\
  ipv6_from_slice M s = Ipv6Slice.from_slice s /\
  ip_from_slice M s = IpSlice.from_slice s.
Proof. exact no_usize_overflow. Qed.
Print Assumptions C02_no_usize_overflow.

(* 32-bit usize: the checked constructors never report an overflow (nor any other Bug) *)
Theorem C02_no_usize_overflow_32 : forall s b, bytes_ok (snd s) ->
  macsec_header_from_slice (2 ^ 32) s <> Bug b /\ macsec_from_slice (2 ^ 32) s <> Bug b /\
  arp_from_slice (2 ^ 32) s <> Bug b /\ ipv4_header_from_slice (2 ^ 32) s <> Bug b /\
  auth_from_slice (2 ^ 32) s <> Bug b /\ raw_from_slice (2 ^ 32) s <> Bug b /\
  ipv6_from_slice (2 ^ 32) s <> Bug b /\ ip_from_slice (2 ^ 32) s <> Bug b.
Proof. exact no_usize_overflow_32. Qed.
Print Assumptions C02_no_usize_overflow_32.

(* ---- non-vacuity ---------------------------------------------------------- *)
(* rejected inputs return Err; the overflow site is reachable: a 16-bit usize overflows on
   40 + 65535, and the checked primitives report it; the largest lengths the constructors
   compute from the contents (ARP 8+2*255+2*255, auth (255+2)*4, raw (255+1)*8) are reached *)
Example C02_ctor_total_ex :
  (exists e, Ipv4Slice.from_slice (mk_slice [69;0;0]) = Err e) /\
  (exists e, Ipv6ExtensionsSlice.from_slice 0 (mk_slice [43;0;0;0;0;0;0;0; 59;1;0;0]) = Err e) /\
  (exists v, Ipv6ExtensionsSlice.from_slice 0 (mk_slice [43;0;0;0;0;0;0;0; 59;0;0;0;0;0;0;0]) = Ok v) /\
  Ipv6ExtensionsSlice.walk 1 16 (mk_slice [43;0;0;0;0;0;0;0; 59;0;0;0;0;0;0;0]) 60 false = Bug SITE_FUEL /\
  ipv6_finish (2 ^ 16) (mk_slice (repeat 0 41%nat))
    (mk_slice ([96;0;0;0; 255;255; 59; 64] ++ repeat 0 32%nat)) = Bug SITE_OVERFLOW /\
  addC (2 ^ 32) 4294967295 1 = Bug SITE_OVERFLOW /\
  (match arp_from_slice (2 ^ 32) (mk_slice ([0;1;8;0;255;255;0;1] ++ repeat 0 1020%nat)) with
   | Ok a => s_len a | _ => 0 end,
   match auth_from_slice (2 ^ 32) (mk_slice ([17;255] ++ repeat 0 1026%nat)) with
   | Ok a => s_len a | _ => 0 end,
   match raw_from_slice (2 ^ 32) (mk_slice ([17;255] ++ repeat 0 2046%nat)) with
   | Ok a => s_len a | _ => 0 end) = (1028, 1028, 2048).
Proof.
  split; [eexists; vm_compute; reflexivity|]. split; [eexists; vm_compute; reflexivity|].
  split; [eexists; vm_compute; reflexivity|]. vm_compute. repeat split.
Qed.

(* ======================================================================== *)
(* The public slice constructors not listed in C02_single_layer_ctor_total return Ok or Err
   (ErrLen in the vocabulary of CtlMsg) for EVERY slice / byte string: Ethernet2HeaderSlice,
   SingleVlanHeaderSlice, Ipv4ExtensionsSlice (every start number), the 11 typed ICMPv6
   payload slices (`payload_ctor k`) and the enum constructors Icmpv6PayloadSlice::from_slice
   / from_type_u8; and every accessor of an accepted payload slice returns (the unwraps of
   first_chunk and the checked `[FIXED_PART_LEN..]` cannot panic): it is the view of
   CtlMsg/Spec.v.  Same list as C01_remaining_ctors_no_oob.  Proofs: Parse/CtorsTotal2.v. *)
From EP Require Import Parse.CtorsTotal2.

Theorem C02_remaining_ctors_total :
  (forall s, returns (Ethernet2HeaderSliceM.from_slice s)) /\
  (forall s, returns (SingleVlanHeaderSliceM.from_slice s)) /\
  (forall nh s, returns (Ipv4Exts.from_slice nh s)) /\
  (forall k s, returns6 (payload_ctor k s)) /\
  (forall ty s, returns6 (P6.from_slice ty s)) /\
  (forall t c s, returns6 (P6.from_type_u8 t c s)) /\
  (forall k s p, payload_ctor k s = CtlMsg.Spec.Ok p ->
     P6.accessors p = CtlMsg.Spec.Ok (CtlMsg.Spec.ndp_payload_view k s)).
Proof. exact remaining_ctors_return. Qed.
Print Assumptions C02_remaining_ctors_total.

(* ---- fixed-width overflow in the OFFSET bookkeeping (Parse/OffsetBounds.v) -------------
   The whole strict path written once more -- Ipv4Slice / Ipv6ExtensionsSlice / Ipv6Slice /
   IpSlice ::from_slice and every slicer of SlicedPacketCursor, calling the checked
   constructors of UsizeBounds.v -- with EVERY usize `+` on a position checked against a
   usize of M values (addC: Bug SITE_OVERFLOW when the exact sum is >= M):
     LenError::add_offset / `layer_start_offset += ..` (+ header.slice().len() in the IPv4
     constructors, + start_slice.len() - rest.len() in the extension walk, + Ipv6Header::LEN
     in the IPv6 constructors, + self.offset in every cursor slicer),
     `self.offset += header_len() | pointer difference | result.slice().len()` (the last one,
     in the four transport slicers, is a dead store Parse/Cursor.v does not carry; the checked
     copy has it), MacsecHeaderSlice::header_len().
   For every M >= 2^17 and every byte string with len bs < M (a real slice: len <= isize::MAX
   < M/2), the four checked entry points ARE the models of Parse/Cursor.v: no addition
   overflows.  Invariant of the proof: c_offset c + s_len s <= len bs for the slice s the
   cursor is about to parse, and X.from_slice s = Err (ELen e) -> le_off e <= s_len s. *)
From EP Require Import Parse.OffsetBounds.

Theorem C02_no_offset_overflow : forall M bs et, 2 ^ 17 <= M -> bytes_ok bs -> len bs < M ->
  from_ethernetC M bs = SlicedPacket.from_ethernet bs /\
  from_linux_sllC M bs = SlicedPacket.from_linux_sll bs /\
  from_ether_typeC M et bs = SlicedPacket.from_ether_type et bs /\
  from_ipC M bs = SlicedPacket.from_ip bs.
Proof. exact no_offset_overflow. Qed.
Print Assumptions C02_no_offset_overflow.

Theorem C02_no_offset_overflow_32 : forall bs et, bytes_ok bs -> len bs < 2 ^ 32 ->
  from_ethernetC (2 ^ 32) bs = SlicedPacket.from_ethernet bs /\
  from_linux_sllC (2 ^ 32) bs = SlicedPacket.from_linux_sll bs /\
  from_ether_typeC (2 ^ 32) et bs = SlicedPacket.from_ether_type et bs /\
  from_ipC (2 ^ 32) bs = SlicedPacket.from_ip bs.
Proof. exact no_offset_overflow_32. Qed.
Print Assumptions C02_no_offset_overflow_32.

Theorem C02_no_offset_overflow_64 : forall bs et, bytes_ok bs -> len bs < 2 ^ 64 ->
  from_ethernetC (2 ^ 64) bs = SlicedPacket.from_ethernet bs /\
  from_linux_sllC (2 ^ 64) bs = SlicedPacket.from_linux_sll bs /\
  from_ether_typeC (2 ^ 64) et bs = SlicedPacket.from_ether_type et bs /\
  from_ipC (2 ^ 64) bs = SlicedPacket.from_ip bs.
Proof. exact no_offset_overflow_64. Qed.
Print Assumptions C02_no_offset_overflow_64.

(* hence the checked entry points never report an overflow (nor any other Bug) *)
Theorem C02_no_offset_overflow_nobug : forall M bs et, 2 ^ 17 <= M -> bytes_ok bs -> len bs < M ->
  nobug (from_ethernetC M bs) /\ nobug (from_linux_sllC M bs) /\
  nobug (from_ether_typeC M et bs) /\ nobug (from_ipC M bs).
Proof. exact no_offset_overflow_nobug. Qed.
Print Assumptions C02_no_offset_overflow_nobug.

(* the constructors on their own, for any slice: the checked Ipv4Slice needs no length bound
   (its only offset is the IPv4 header length <= 60); the others need s_len s < M *)
Theorem C02_no_offset_overflow_ctors : forall M s, 2 ^ 17 <= M -> bytes_ok (snd s) ->
  ipv4_from_sliceC M s = Ipv4Slice.from_slice s /\
  (s_len s < M ->
   (forall nh, exts_from_sliceC M nh s = Ipv6ExtensionsSlice.from_slice nh s) /\
   ipv6_from_sliceC M s = Ipv6Slice.from_slice s /\
   ip_from_sliceC M s = IpSlice.from_slice s).
Proof. exact no_offset_overflow_ctors. Qed.
Print Assumptions C02_no_offset_overflow_ctors.

(* where the layer_start_offset of a constructor's LenError lies: inside the slice *)
Theorem C02_len_error_offset_inside : forall s e,
  (Ipv4Slice.from_slice s = Err (ELen e) \/ Ipv6Slice.from_slice s = Err (ELen e) \/
   IpSlice.from_slice s = Err (ELen e) \/
   (exists nh, Ipv6ExtensionsSlice.from_slice nh s = Err (ELen e))) -> le_off e <= s_len s.
Proof. exact len_error_offset_inside. Qed.
Print Assumptions C02_len_error_offset_inside.

(* ---- fixed-width overflow in the accessors that add or multiply (Parse/AccessorArith.v):
   LinuxSllHeaderSlice::sender_address (6 + length), MacsecHeaderSlice::header_len,
   ArpPacketSlice::{sender_protocol_addr, target_hw_addr, target_protocol_addr}
   (8 + hw, 8 + hw + pr, 8 + hw*2 + pr), Ipv6RawExtHeaderSlice / IpAuthHeaderSlice
   ::from_slice_unchecked ((b+1)*8, (b+2)*4: run by the extension iterator on every header),
   TcpHeaderSlice::options (data_offset()*4): the checked copies are the accessors of
   Parse/Access.v for every M >= 2^17 and every slice of bytes. *)
From EP Require Import Parse.AccessorArith.

Theorem C02_accessor_arith_bounds : forall M s, 2 ^ 17 <= M -> bytes_ok (snd s) ->
  sll_sender_addressC M s = LinuxSllHeaderA.sender_address s /\
  AccessorArith.macsec_header_lenC M s = MacsecHeaderA.header_len s /\
  arp_sender_protocol_addrC M s = ArpPacketA.sender_protocol_addr s /\
  arp_target_hw_addrC M s = ArpPacketA.target_hw_addr s /\
  arp_target_protocol_addrC M s = ArpPacketA.target_protocol_addr s /\
  raw_from_slice_uncheckedC M s = Ipv6RawExtHeaderA.from_slice_unchecked s /\
  auth_from_slice_uncheckedC M s = Ipv6ExtIterA.auth_from_slice_unchecked s /\
  tcp_optionsC M s = TcpHeaderSliceA.options s.
Proof. exact accessor_arith_bounds. Qed.
Print Assumptions C02_accessor_arith_bounds.

(* ---- non-vacuity ---------------------------------------------------------- *)
(* the checked copies are not the models by construction: with a usize too small for the
   input they report the overflow -- (a) Ethernet II + VLAN with 16 usize values:
   `self.offset += vlan.header_len()` = 14 + 4; (b) Ethernet II + IPv6 (next header 60) + one
   byte with 50 usize values: the LenError of the cut destination options header is moved by
   0 (walk), 40 (Ipv6Slice), then `add_offset(self.offset)` = 40 + 14 overflows; with a 32-bit
   usize both equal the model (the error carries offset 54).  Accessors: the largest
   windows are reached (ARP 8+255*2+255 = 773, raw ext 2048, TCP options up to 60) and an
   8-bit usize overflows.  Payload slices: a Redirect payload of 31 bytes is rejected. *)
Example C02_offset_overflow_ex :
  from_ethernetC 16 ex_vlan_pkt = Bug SITE_OVERFLOW /\
  (exists p, from_ethernetC (2 ^ 32) ex_vlan_pkt = Ok p /\ SlicedPacket.from_ethernet ex_vlan_pkt = Ok p) /\
  from_ethernetC 50 ex_v6_cut_pkt = Bug SITE_OVERFLOW /\
  from_ethernetC (2 ^ 32) ex_v6_cut_pkt = Err (ELen (mkLenError 8 1 LsSlice LyIpv6ExtHeader 54)) /\
  SlicedPacket.from_ethernet ex_v6_cut_pkt = Err (ELen (mkLenError 8 1 LsSlice LyIpv6ExtHeader 54)) /\
  arp_target_protocol_addrC (2 ^ 8) (mk_slice ([0;1;8;0;255;255;0;1] ++ repeat 0 1020%nat)) = Bug SITE_OVERFLOW /\
  (exists e, payload_ctor CtlMsg.Spec.PkRedirect (repeat 0 31%nat) = CtlMsg.Spec.ErrLen e) /\
  (exists e, Ethernet2HeaderSliceM.from_slice (mk_slice (repeat 0 13%nat)) = Err e).
Proof.
  split; [vm_compute; reflexivity|]. split; [eexists; split; vm_compute; reflexivity|].
  split; [vm_compute; reflexivity|]. split; [vm_compute; reflexivity|].
  split; [vm_compute; reflexivity|]. split; [vm_compute; reflexivity|].
  split; eexists; vm_compute; reflexivity.
Qed.

(* (a) the packet-level accessors of a STRICT result -- SlicedPacket::{payload_ether_type,
   ether_payload, ip_payload, is_ip_payload_fragmented, vlan, vlan_ids}, Parse/PacketAccess.v, with
   push_unchecked on a full ArrayVec = Bug SITE_PUSH -- return normally for every result of the four
   strict entry points: each run is `Ok tt` (none of them has an Err arm).  No `bytes_ok` needed. *)
From EP Require Import Parse.PacketAccess Parse.PacketAccessProofs.

Theorem C02_strict_packet_accessors_total : forall bs et p, entry bs et p ->
  forall r, In r (SlicedPacketPA.packet_accessors p) -> r = Ok tt.
Proof. exact strict_packet_accessors_total. Qed.
Print Assumptions C02_strict_packet_accessors_total.

(* (b) the TCP-option and NDP-option iterator clauses, inside C02: on EVERY window / byte area the
   iteration returns -- no OOB read, no panic, no UB item, the loop bound length+1 of the models is
   never exhausted --, yields at most one item per byte (TCP) / one accepted option per 8 bytes
   (NDP), every Ok item shrinks the state, the final state is exhausted (definitions pinned in
   Props/C01.v; restates C13_in_bounds / C13_bounded / C13_exhausted and C17_ndp_options) ... *)
From EP Require Import Parse.StoredIter.

Theorem C02_option_iterators_total :
  (forall o, tcp_iter_ok o) /\ (forall opts, ndp_iter_ok opts).
Proof. exact (conj tcp_iter_total ndp_iter_total). Qed.
Print Assumptions C02_option_iterators_total.

(* ... and composed with the slices a result STORES: options() of every accepted TcpSlice /
   TcpHeaderSlice returns a window of at most 40 bytes inside the slice whose iteration is total and
   bounded; payload_slice() of every accepted Icmpv6Slice returns Ok or ErrLen (never UB), the
   accessors of the typed payload slice return, and the NDP iteration over its options() area is
   total and bounded.  Single-layer constructors on every slice value: *)
Theorem C02_stored_iter_single_layer :
  (forall s x, TcpSlice.from_slice s = Ok x ->
     exists o, TcpSliceA.options x = Ok o /\ sub_of o s /\ s_len o = fst x - 20 /\ s_len o <= 40 /\
               tcp_iter_ok o) /\
  (forall s h, TcpHeaderSliceA.from_slice s = Ok h ->
     exists o, TcpHeaderSliceA.options h = Ok o /\ sub_of o s /\ s_len o = s_len h - 20 /\ s_len o <= 40 /\
               tcp_iter_ok o) /\
  (forall s v, Icmpv6Slice.from_slice s = Ok v ->
     exists t c pw,
       icmpv6_payload_slice v = Ok (pw, P6.from_type_u8 t c (snd pw)) /\
       sub_of pw s /\ s_len pw = s_len s - 8 /\
       payload_slice_ok pw (P6.from_type_u8 t c (snd pw))).
Proof. exact stored_iter_single_layer. Qed.
Print Assumptions C02_stored_iter_single_layer.

(* the transport slice of every strict (4 entry points) or lax (3 entry points) whole-packet result *)
Theorem C02_packet_tcp_options_iter : forall bs hl s,
  bytes_ok bs -> stored_transport bs (TrTcp hl s) ->
  exists o, TcpSliceA.options (hl, s) = Ok o /\ sub_of o s /\ in_window bs o /\
            s_len o = hl - 20 /\ s_len o <= 40 /\ tcp_iter_in bs o.
Proof. exact packet_tcp_options_iter. Qed.
Print Assumptions C02_packet_tcp_options_iter.

Theorem C02_packet_icmp6_payload_slice : forall bs s,
  stored_transport bs (TrIcmpv6 s) ->
  exists t c pw,
    icmpv6_payload_slice s = Ok (pw, P6.from_type_u8 t c (snd pw)) /\
    sub_of pw s /\ in_window bs pw /\ s_len pw = s_len s - 8 /\
    payload_slice_in bs pw (P6.from_type_u8 t c (snd pw)).
Proof. exact packet_icmp6_payload_slice. Qed.
Print Assumptions C02_packet_icmp6_payload_slice.

(* (c) LaxPacketHeaders::from_linux_sll returns Ok or Err for every byte string of bytes
   (C06_sll_start_laxheaders + C04_lax_headers_never_bug; Parse/LaxHdrSll.v) *)
From EP Require Import Parse.LaxHdrSll.

Theorem C02_lax_headers_from_linux_sll_total : forall bs, bytes_ok bs ->
  (exists p, EP.Parse.HdrLaxModel.LaxPacketHeaders.from_linux_sll bs = Ok p) \/
  (exists e, EP.Parse.HdrLaxModel.LaxPacketHeaders.from_linux_sll bs = Err e).
Proof. exact lax_headers_from_linux_sll_total. Qed.
Print Assumptions C02_lax_headers_from_linux_sll_total.

(* ---- non-vacuity ---------------------------------------------------------- *)
(* Ethernet II + VLAN + MACsec (unmodified, short length 6, no SCI) + an unknown ether type: no net /
   transport layer, so payload_ether_type = the ether type behind the SecTAG and ether_payload = the
   MACsec payload with LenSource::MacsecShortLength; the six runs are Ok.  A malformed TCP option
   area (MSS announcing length 4 with 3 bytes present) ends the iteration with one error item; an NDP
   area whose second option has length 0 ends with one accepted option and one error *)
Definition ex_macsec_pkt : bytes :=
  [1;2;3;4;5;6; 7;8;9;10;11;12; 129;0;  0;5; 136;229;
   0; 6; 0;0;0;1; 18;52; 170;187;204;221; 238;255].

Example C02_strict_packet_accessors_ex :
  match SlicedPacket.from_ethernet ex_macsec_pkt with
  | Ok p => Some (map (fun x => match x with LeVlan _ => 0 | LeMacsec _ => 1 end) (sp_exts p),
                  SlicedPacketPA.packet_accessors p,
                  SlicedPacketPA.payload_ether_type p, SlicedPacketPA.vlan_ids p,
                  match SlicedPacketPA.ether_payload p with
                  | Ok (Some e) => Some (ep_ether_type e, ep_src e, win_of (ep_slice e))
                  | _ => None
                  end)
  | _ => None
  end =
  Some ([0; 1], [Ok tt; Ok tt; Ok tt; Ok tt; Ok tt; Ok tt],
        Ok (Some 4660), Ok [5], Some (4660, LsMacsecShortLength, (26, 4))) /\
  TO.iterate [2; 4; 5] =
    TO.Ret ([(TO.Err (EP.TcpOpt.Spec.UnexpectedEndOfSlice 2 4 3), [])], []) /\
  CtlMsg.Model.Ndp.collect 17 [1;1; 10;11;12;13;14;15; 5;0; 0;0;0;0;0;0] =
    Some [CtlMsg.Spec.IOk CtlMsg.Spec.KSrcLL [1;1; 10;11;12;13;14;15];
          CtlMsg.Spec.IErr (CtlMsg.Spec.ZeroLength 5)].
Proof. vm_compute. repeat split. Qed.
