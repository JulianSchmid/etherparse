(* Props/C01.v -- property C01: decoding never touches memory outside the slice.
   In the model every unchecked primitive of the crate (get_unchecked, *ptr.add,
   from_raw_parts, unwrap_unchecked, pointer subtraction) is PARTIAL: it returns
   `Bug site` when its precondition fails (Parse/Types.v).  C01 for the model is
   the statement that no decoder or accessor ever returns `Bug`, and that every
   window handed back lies inside the input.  Each theorem is the named lemma of the
   proof files; the Examples are test vectors checked by evaluation. *)
From EP Require Parse.GenAccessOk.   (* the field accessors, re-translated from the Rust source on every run (Gen/Accessors.v), equal the hand models the theorems below are about *)
From EP Require Parse.ConstsOk.
From EP Require Import Base.Bytes Parse.Types Parse.Slices Parse.Cursor Parse.View
  Parse.WireSpec Parse.StrictProofs.

(* strict whole-packet slicing: no unchecked primitive fails, for every input *)
Theorem C01_strict_no_oob : forall bs et b, bytes_ok bs ->
  SlicedPacket.from_ethernet bs <> Bug b /\ SlicedPacket.from_linux_sll bs <> Bug b /\
  SlicedPacket.from_ether_type et bs <> Bug b /\ SlicedPacket.from_ip bs <> Bug b.
Proof. exact strict_never_bug. Qed.
Print Assumptions C01_strict_no_oob.

(* ======================================================================== *)
(* Accessors, conversions and iterators reachable from the strict slice types
   (Parse/Access.v, proofs in Parse/AccessProofs.v).  In the model an accessor
   is a function of the stored slice value only; its unchecked reads /
   from_raw_parts / unwrap(_unchecked) are partial.  `nobug r` = r is not `Bug`. *)
From EP Require Import Parse.Repr Parse.Access Parse.AccessProofs.

(* every component stored in the result of a strict whole-packet entry point was
   produced by the corresponding from_slice on a window of the input ... *)
Theorem C01_sliced_wf : forall bs et p, entry bs et p -> sliced_wf bs p.
Proof. exact sliced_wf_entry. Qed.
Print Assumptions C01_sliced_wf.

(* ... hence no accessor / to_header / to_packet / extension iterator (and no
   accessor of a yielded extension header) of any component performs an
   out-of-bounds unchecked read or from_raw_parts, or a failing unwrap_unchecked:
   `SlicedPacketA.accessors p` lists one run of EVERY accessor of EVERY component *)
Theorem C01_accessors_no_oob : forall bs et p, bytes_ok bs -> entry bs et p ->
  sliced_wf bs p /\ forall r, In r (SlicedPacketA.accessors p) -> forall b, r <> Bug b.
Proof. exact packet_accessors_no_bug. Qed.
Print Assumptions C01_accessors_no_oob.

(* every sub-slice stored in the result or handed back by an accessor (header /
   payload / options / ICV / address / extension-header windows) lies inside the
   input, and its contents are the bytes of the input at that position *)
Theorem C01_windows_inside : forall bs et p, bytes_ok bs -> entry bs et p ->
  forall r, In r (SlicedPacketA.windows p) ->
    exists w, r = Ok w /\ s_off w + s_len w <= len bs /\
              snd w = take (s_len w) (drop (s_off w) bs).
Proof. exact packet_windows_inside. Qed.
Print Assumptions C01_windows_inside.

(* single layers: for EVERY slice s (no buffer, no byte-range assumption) and every
   value the constructor returns for it, all accessors are Bug-free and all returned
   windows are sub-slices of s; the three conversions that rely on "a byte is < 256"
   (ArpPacket::new_unchecked, IpAuthHeader::new().unwrap(), Ipv6RawExtHeader::new_raw()
   .unwrap()) need bytes_ok.  The statement is the conjunction over all types. *)
Theorem C01_single_layer_accessors :
  (forall s e, Ethernet2A.from_slice_without_fcs s = Ok e \/ Ethernet2A.from_slice_with_crc32_fcs s = Ok e ->
     Forall nobug (Ethernet2A.accessors e) /\ Forall (win_ok s) (Ethernet2A.windows e)) /\
  (forall s v, SingleVlanSlice.from_slice s = Ok v ->
     Forall nobug (SingleVlanA.accessors v) /\ Forall (win_ok s) (SingleVlanA.windows v)) /\
  (forall s h, LinuxSll.header_from_slice s = Ok h ->
     Forall nobug (LinuxSllHeaderA.accessors h) /\ Forall (win_ok s) (LinuxSllHeaderA.windows h)) /\
  (forall s x, LinuxSll.from_slice s = Ok x ->
     Forall nobug (LinuxSllA.accessors x) /\ Forall (win_ok s) (LinuxSllA.windows x)) /\
  (forall s h, Macsec.header_from_slice s = Ok h -> Forall nobug (MacsecHeaderA.accessors h)) /\
  (forall s m, Macsec.from_slice s = Ok m -> Forall nobug (MacsecA.accessors m)) /\
  (forall s a, ArpPacketSlice.from_slice s = Ok a ->
     Forall nobug (ArpPacketA.accessors a) /\ Forall (win_ok s) (ArpPacketA.windows a) /\
     (bytes_ok (snd s) -> Forall nobug (ArpPacketA.conversions a))) /\
  (forall s h, Ipv4HeaderSlice.from_slice s = Ok h ->
     Forall nobug (Ipv4HeaderA.accessors h) /\ Forall (win_ok s) (Ipv4HeaderA.windows h)) /\
  (forall s h, IpAuthHeaderSlice.from_slice s = Ok h ->
     Forall nobug (IpAuthHeaderA.accessors h) /\ Forall (win_ok s) (IpAuthHeaderA.windows h) /\
     (bytes_ok (snd s) -> Forall nobug (IpAuthHeaderA.conversions h))) /\
  (forall s h, Ipv6HeaderSlice.from_slice s = Ok h -> Forall nobug (Ipv6HeaderA.accessors h)) /\
  (forall s h, Ipv6RawExtHeaderSlice.from_slice s = Ok h ->
     Forall nobug (Ipv6RawExtHeaderA.accessors h) /\ Forall (win_ok s) (Ipv6RawExtHeaderA.windows h) /\
     (bytes_ok (snd s) -> Forall nobug (Ipv6RawExtHeaderA.conversions h))) /\
  (forall s h, Ipv6FragmentHeaderSlice.from_slice s = Ok h -> Forall nobug (Ipv6FragmentHeaderA.accessors h)) /\
  (forall s v, Ipv4Slice.from_slice s = Ok v \/ IpSlice.from_slice s = Ok (IpV4 v) ->
     bytes_ok (snd s) -> Forall nobug (Ipv4SliceA.accessors v)) /\
  (forall s v, Ipv6Slice.from_slice s = Ok v \/ IpSlice.from_slice s = Ok (IpV6 v) ->
     bytes_ok (snd s) ->
     Forall nobug (Ipv6SliceA.accessors v) /\ Forall (win_ok s) (Ipv6SliceA.windows v)) /\
  (forall s h, UdpSlice.header_from_slice s = Ok h -> Forall nobug (UdpA.header_accessors h)) /\
  (forall s u, UdpSlice.from_slice s = Ok u \/ UdpSlice.from_slice_lax s = Ok u ->
     Forall nobug (UdpA.accessors u) /\ Forall (win_ok s) (UdpA.windows u)) /\
  (forall s x, TcpSlice.from_slice s = Ok x ->
     Forall nobug (TcpSliceA.accessors x) /\ Forall (win_ok s) (TcpSliceA.windows x)) /\
  (forall s h, TcpHeaderSliceA.from_slice s = Ok h ->
     Forall nobug (TcpHeaderSliceA.accessors h) /\ Forall (win_ok s) (TcpHeaderSliceA.windows h)) /\
  (forall s v, Icmpv4Slice.from_slice s = Ok v ->
     Forall nobug (Icmpv4A.accessors v) /\ Forall (win_ok s) (Icmpv4A.windows v)) /\
  (forall s v, Icmpv6Slice.from_slice s = Ok v ->
     Forall nobug (Icmpv6A.accessors v) /\ Forall (win_ok s) (Icmpv6A.windows v)).
Proof. exact single_layer_ok. Qed.
Print Assumptions C01_single_layer_accessors.

(* `win_ok s r` is more than arithmetic: r = Ok w with w = from_raw_parts inside s *)
Theorem C01_window_arith : forall s r, win_ok s r ->
  exists w, r = Ok w /\ s_off s <= s_off w /\ s_off w + s_len w <= s_off s + s_len s.
Proof. exact win_ok_arith. Qed.
Print Assumptions C01_window_arith.

(* the extension iterator yields exactly headers that from_slice validated: each
   yielded slice satisfies the invariant of its type and lies inside the exts slice *)
Theorem C01_exts_iter_items : forall nh s x nx rest,
  Ipv6ExtensionsSlice.from_slice nh s = Ok (x, nx, rest) ->
  exists l, Ipv6ExtIterA.items x = Ok l /\
            8 * len l <= s_len (x6_slice x) /\
            tiles (s_off (x6_slice x)) (map item_win l) (s_off (x6_slice x) + s_len (x6_slice x)) /\
            Forall item_wf l /\
            Forall (fun i => sub_of (ext_item_slice i) (x6_slice x)) l.
Proof. exact exts_iter_bounded. Qed.
Print Assumptions C01_exts_iter_items.

(* ---- non-vacuity ---------------------------------------------------------- *)
(* the Ethernet / VLAN / IPv4 / UDP packet `ex_pkt` of Props/C03.v *)
Definition ex_pkt_acc : bytes :=
  [1;2;3;4;5;6; 7;8;9;10;11;12; 129;0;  0;5; 8;0;
   69;0;0;32; 0;0;0;0; 64;17;0;0; 1;2;3;4; 5;6;7;8;
   0;1;0;2;0;12;0;0; 170;187;204;221].
(* IPv6 / hop-by-hop / destination options / fragment (offset 0, last) / UDP *)
Definition ex6_pkt_acc : bytes :=
  [96;0;0;0; 0;32; 0; 64] ++ repeat 1 16 ++ repeat 2 16 ++
  [60;0;0;0;0;0;0;0] ++ [44;0;1;4;0;0;0;0] ++ [17;0;0;0;0;0;0;1] ++ [0;1;0;2;0;8;0;0].

Definition isok {A} (r : res A) : bool := match r with Ok _ => true | _ => false end.
Definition wins (l : list (res slice)) : list (option window) :=
  map (fun r => match r with Ok w => Some (win_of w) | _ => None end) l.

Example C01_accessors_ex :
  bytes_ok ex_pkt_acc /\
  match SlicedPacket.from_ethernet ex_pkt_acc with
  | Ok p => (length (SlicedPacketA.accessors p), forallb isok (SlicedPacketA.accessors p),
             wins (SlicedPacketA.windows p))
  | _ => (0%nat, false, [])
  end =
  (45%nat, true,
   [Some (0, 50); Some (0, 14); Some (14, 36);           (* Ethernet II: slice, header, payload *)
    Some (14, 36); Some (14, 4); Some (18, 32);          (* VLAN: slice, header, payload *)
    Some (18, 20); Some (38, 12); Some (38, 0);          (* IPv4: header, payload, options *)
    Some (38, 12); Some (38, 8); Some (46, 4)]) /\       (* UDP: slice, header, payload *)
  (Ethernet2A.to_header (mkEth2 0 (mk_slice ex_pkt_acc)),
   SingleVlanA.to_header (14, skipn 14 ex_pkt_acc),
   UdpA.to_header (38, skipn 38 ex_pkt_acc)) =
  (Ok ([7; 8; 9; 10; 11; 12], [1; 2; 3; 4; 5; 6], 33024), Ok (0, false, 5, 2048), Ok (1, 2, 12, 0)).
Proof. split; [apply bytes_okb_spec; vm_compute; reflexivity|]. vm_compute. repeat split. Qed.

Example C01_exts_iter_ex :
  bytes_ok ex6_pkt_acc /\
  match SlicedPacket.from_ip ex6_pkt_acc with
  | Ok (mkSliced _ _ (Some (NtIpv6 v)) (Some (TrUdp _)) as p) =>
      (length (SlicedPacketA.accessors p), forallb isok (SlicedPacketA.accessors p),
       match Ipv6ExtIterA.items (v6_exts v) with
       | Ok l => Some (map item_win l, map (fun x => forallb isok (Ipv6ExtIterA.item_accessors x)) l)
       | _ => None
       end)
  | _ => (0%nat, false, None)
  end = (32%nat, true, Some ([(40, 8); (48, 8); (56, 8)], [true; true; true])).
Proof. split; [apply bytes_okb_spec; vm_compute; reflexivity|vm_compute; reflexivity]. Qed.

(* the accessors are genuinely partial: on values that no constructor returns they DO hit Bug *)
Example C01_accessors_partial_ex :
  Ethernet2A.ether_type (mkEth2 0 (mk_slice [1;2;3])) = Bug SITE_RD /\
  Ipv4HeaderA.options (mk_slice [69;0;0;0]) = Bug SITE_SUBTRACT /\
  Ipv6ExtIterA.collect 5 (mkExtIter 60 (mk_slice [43;1;0;0;0;0;0;0])) = Bug SITE_SUB /\
  LinuxSllHeaderA.packet_type (mk_slice [0;9;0;1;0;0;0;0;0;0;0;0;0;0;8;0]) = Bug SITE_UNWRAP /\
  IpAuthHeaderA.to_header (mk_slice [17;0;0;0;0;0;0;0;0;0;0;0;0;0]) = Bug SITE_UNWRAP.
Proof. vm_compute. repeat split. Qed.

(* ---- the other decoder families --------------------------------------------
   The same statement ("no partial primitive of the model fails, for every byte
   string") for the decoders whose models live with other properties, restated
   here so that C01 lists every family it rests on:
     lax slicing (C05), struct decoding (C04; LaxPacketHeaders::{from_ethernet, from_ether_type,
     from_ip}: C04_lax_headers_never_bug in Props/C04.v); the TCP option iterator
     (C13_in_bounds),
     the ICMP/NDP/IGMP/ARP views (C17_*: the specifications contain no UB value),
     defragmentation (C11_no_panic), extension chains (C12_write_iff_walk) and the
     readers (C16_readers_total) are stated in their own Props files. *)
From EP Require Import Parse.Repr Parse.LaxSlices Parse.LaxCursor Parse.LaxWire Parse.LaxWireProofs
  Parse.HdrModel Parse.HdrProofs3.

Theorem C01_lax_no_oob : forall bs et b, bytes_ok bs ->
  LaxSlicedPacket.from_ethernet bs <> Bug b /\
  LaxSlicedPacket.from_ether_type et bs <> Bug b /\
  LaxSlicedPacket.from_ip bs <> Bug b.
Proof. exact lax_never_bug. Qed.
Print Assumptions C01_lax_no_oob.

Theorem C01_lax_single_no_oob : forall bs s pos lim nh, bytes_ok bs -> repr bs s pos lim ->
  no_bug (LaxIpSlice.from_slice s) /\ no_bug (LaxIpv4Slice.from_slice s) /\
  no_bug (LaxIpv6Slice.from_slice s) /\ no_bug (LaxMacsecSlice.from_slice s) /\
  no_bug (UdpSlice.from_slice_lax s) /\ no_bug (LaxIpv6Exts.from_slice_lax nh s) /\
  no_bug (LaxIpv4Exts.from_slice_lax nh s).
Proof. exact lax_single_never_bug. Qed.
Print Assumptions C01_lax_single_no_oob.

Theorem C01_headers_no_oob : forall bs et b, bytes_ok bs ->
  PacketHeaders.from_ethernet_slice bs <> Bug b /\
  PacketHeaders.from_ether_type et bs <> Bug b /\
  PacketHeaders.from_ip_slice bs <> Bug b.
Proof. exact hdr_never_bug_raw. Qed.
Print Assumptions C01_headers_no_oob.

(* ======================================================================== *)
(* Accessors, conversions and iterators reachable from the LAX results
   (LaxSlicedPacket::from_ethernet / from_ether_type / from_ip): the components
   of a lax result are the strict slice types, built by the lax constructors;
   models in Parse/LaxAccess.v (reusing Parse/Access.v), proofs in
   Parse/LaxAccessProofs.v + LaxAccessPacket.v.  No hypothesis about the stop error:
   the statements hold for results that stopped anywhere. *)
From EP Require Import Parse.LaxAccess Parse.LaxAccessProofs Parse.LaxAccessPacket.

(* every component stored in a lax whole-packet result was produced by the corresponding
   constructor on a window of the input (lax_sliced_wf: link, VLAN / LaxMacsecSlice link
   extensions, LaxIpSlice::from_slice for the net layer, UdpSlice::from_slice_lax /
   TcpSlice / Icmpv4Slice / Icmpv6Slice::from_slice for the transport layer, at most 3
   link extensions) and satisfies the per-type invariant of Parse/AccessProofs.v
   (lax_sliced_inv: wf_eth2, wf_vlan, wf_macsech, wf_ipv4h, wf_ah, wf_ipv6h, exts_good,
   wf_arp, wf_udp, wf_tcp, wf_icmp4, wf_icmp6, every window inside the input) *)
Theorem C01_lax_sliced_wf : forall bs et p, lax_entry bs et p ->
  lax_sliced_wf bs p /\ lax_sliced_inv bs p.
Proof. exact lax_packet_wf. Qed.
Print Assumptions C01_lax_sliced_wf.

(* no accessor / to_header / to_packet / extension-iterator run (and no accessor of a
   yielded extension header), no LaxLinkExtSlice::{header_len,to_header,payload}, no
   LaxIpSlice accessor and none of LaxSlicedPacket::{vlan, vlan_ids (push_unchecked),
   ether_payload, ip_payload} on any lax result returns Bug *)
Theorem C01_lax_accessors_no_oob : forall bs et p, bytes_ok bs -> lax_entry bs et p ->
  forall r, In r (LaxSlicedPacketA.accessors p) -> forall b, r <> Bug b.
Proof. exact lax_packet_accessors_no_bug. Qed.
Print Assumptions C01_lax_accessors_no_oob.

(* every window stored in / returned from a lax result lies inside the input and holds
   the input's bytes *)
Theorem C01_lax_windows_inside : forall bs et p, bytes_ok bs -> lax_entry bs et p ->
  forall r, In r (LaxSlicedPacketA.windows p) ->
    exists w, r = Ok w /\ s_off w + s_len w <= len bs /\
              snd w = take (s_len w) (drop (s_off w) bs).
Proof. exact lax_packet_windows_inside. Qed.
Print Assumptions C01_lax_windows_inside.

(* the extension iterator on the Ipv6ExtensionsSlice of EVERY from_slice_lax result (any
   start number, any slice, ANY stop error -- including a chain that was cut: the
   next_header of the last complete header names an extension header, the slice is
   exhausted): it terminates without Bug, yields only complete headers satisfying their
   invariant, at most len/8 of them, and they tile the stored slice exactly.  This is what
   the repaired `next()` (None on an empty rest, fix d1e93b9) provides. *)
Theorem C01_lax_exts_iter_items : forall nh s x nx rest err,
  LaxIpv6Exts.from_slice_lax nh s = Ok (x, nx, rest, err) ->
  exists l, Ipv6ExtIterA.items x = Ok l /\
            8 * len l <= s_len (x6_slice x) /\
            tiles (s_off (x6_slice x)) (map item_win l) (s_off (x6_slice x) + s_len (x6_slice x)) /\
            Forall item_wf l /\
            Forall (fun i => sub_of (ext_item_slice i) (x6_slice x)) l.
Proof. exact lax_exts_iter_items. Qed.
Print Assumptions C01_lax_exts_iter_items.

(* the same for the IPv6 slice stored in a lax whole-packet result *)
Theorem C01_lax_packet_exts_iter : forall bs et p v,
  lax_entry bs et p -> lsp_net p = Some (LNtIpv6 v) ->
  exists l, Ipv6ExtIterA.items (lv6_exts v) = Ok l /\
            8 * len l <= s_len (x6_slice (lv6_exts v)) /\
            tiles (s_off (x6_slice (lv6_exts v))) (map item_win l)
                  (s_off (x6_slice (lv6_exts v)) + s_len (x6_slice (lv6_exts v))) /\
            Forall item_wf l /\
            Forall (fun i => sub_of (ext_item_slice i) (x6_slice (lv6_exts v))) l.
Proof. exact lax_packet_exts_iter. Qed.
Print Assumptions C01_lax_packet_exts_iter.

(* lax single layers, for EVERY slice s (no buffer) *)
Theorem C01_lax_single_layer_accessors :
  (forall s m, LaxMacsecSlice.from_slice s = Ok m ->
     Forall nobug (LaxMacsecA.accessors m) /\ Forall (win_ok s) (LaxMacsecA.windows m)) /\
  (forall s v, (exists stop, LaxIpv4Slice.from_slice s = Ok (v, stop)) \/
               (exists stop, LaxIpSlice.from_slice s = Ok (LIpV4 v, stop)) ->
     bytes_ok (snd s) ->
     Forall nobug (LaxIpSliceA.accessors (LIpV4 v)) /\ Forall (win_ok s) (LaxIpSliceA.windows (LIpV4 v))) /\
  (forall s v, (exists stop, LaxIpv6Slice.from_slice s = Ok (v, stop)) \/
               (exists stop, LaxIpSlice.from_slice s = Ok (LIpV6 v, stop)) ->
     bytes_ok (snd s) ->
     Forall nobug (LaxIpSliceA.accessors (LIpV6 v)) /\ Forall (win_ok s) (LaxIpSliceA.windows (LIpV6 v)) /\
     win_ok s (Ok (x6_slice (lv6_exts v)))).
Proof. exact lax_single_layer_ok. Qed.
Print Assumptions C01_lax_single_layer_accessors.

(* ---- non-vacuity ---------------------------------------------------------- *)
(* F2 witness: IPv6, payload length 8, a destination-options header whose next_header
   announces a routing header that is not there.  Strict slicing rejects it; lax slicing
   stops with a length error at offset 48 and stores the 8-byte chain; the iterator yields
   exactly that one header although its next_header (43) names an extension header. *)
Definition ex_cut_chain : bytes := [96;0;0;0; 0;8; 60; 64] ++ repeat 0 32 ++ [43;0;0;0;0;0;0;0].

Example C01_lax_cut_chain_ex :
  bytes_ok ex_cut_chain /\
  (exists e, SlicedPacket.from_ip ex_cut_chain = Err e) /\
  match LaxSlicedPacket.from_ip ex_cut_chain with
  | Ok p =>
      (match lsp_stop_err p with Some (ELen e, ly) => Some (le_off e, le_required e, le_len e, ly) | _ => None end,
       length (LaxSlicedPacketA.accessors p), forallb isok (LaxSlicedPacketA.accessors p),
       wins (LaxSlicedPacketA.windows p),
       match lsp_net p with
       | Some (LNtIpv6 v) =>
           (x6_first (lv6_exts v),
            match Ipv6ExtIterA.items (lv6_exts v) with Ok l => Some (map item_win l) | _ => None end,
            lipp_number (lv6_payload v))
       | _ => (None, None, 0)
       end)
  | _ => (None, 0%nat, false, [], (None, None, 0))
  end =
  (Some (48, 8, 0, LyIpv6RouteHeader), 22%nat, true,
   [Some (0, 40); Some (40, 8); Some (48, 0);     (* IPv6 header, extension slice, payload *)
    Some (40, 8); Some (42, 6)],                  (* yielded header, its payload() *)
   (Some 60, Some [(40, 8)], 43)) /\
  (* without the empty-rest check the next call would read out of bounds *)
  Ipv6ExtIterA.arm (mkExtIter 43 (48, [])) Ipv6RawExtHeaderA.from_slice_unchecked
    Ipv6RawExtHeaderA.next_header XRouting = Bug SITE_RD /\
  Ipv6ExtIterA.next (mkExtIter 43 (48, [])) = Ok None.
Proof.
  split; [apply bytes_okb_spec; vm_compute; reflexivity|].
  split; [eexists; vm_compute; reflexivity|]. vm_compute. repeat split.
Qed.

(* the Ethernet / VLAN / IPv4 / UDP packet of C01_accessors_ex cut to 47 bytes: strict
   slicing rejects it (IPv4 total length), lax slicing keeps every layer (IPv4 payload
   marked incomplete, UDP slice = what is left); 55 accessor runs Ok, 13 windows inside *)
Example C01_lax_accessors_ex :
  bytes_ok (firstn 47 ex_pkt_acc) /\
  (exists e, SlicedPacket.from_ethernet (firstn 47 ex_pkt_acc) = Err e) /\
  match LaxSlicedPacket.from_ethernet (firstn 47 ex_pkt_acc) with
  | Ok p => (lsp_stop_err p, length (LaxSlicedPacketA.accessors p),
             forallb isok (LaxSlicedPacketA.accessors p), wins (LaxSlicedPacketA.windows p),
             LaxSlicedPacketA.vlan_ids p,
             match lsp_net p with Some (LNtIpv4 v) => Some (lipp_incomplete (lv4_payload v)) | _ => None end)
  | _ => (None, 0%nat, false, [], Bug 0, None)
  end =
  (None, 55%nat, true,
   [Some (0, 47); Some (0, 14); Some (14, 33);           (* Ethernet II: slice, header, payload *)
    Some (14, 33); Some (14, 4); Some (18, 29);          (* VLAN: slice, header, payload *)
    Some (18, 20); Some (38, 9); Some (38, 0);           (* IPv4: header, payload, options *)
    Some (38, 9); Some (38, 8); Some (46, 1);            (* UDP (lax): slice, header, payload *)
    Some (18, 29)],                                      (* LaxSlicedPacket::ether_payload() *)
   Ok [5], Some true).
Proof.
  split; [apply bytes_okb_spec; vm_compute; reflexivity|].
  split; [eexists; vm_compute; reflexivity|vm_compute; reflexivity].
Qed.

(* MACsec (unmodified, short length 40 announces 38 payload bytes, 4 are present): the lax
   MACsec slice hands out the 4 bytes that exist, flagged incomplete *)
Example C01_lax_macsec_ex :
  match LaxSlicedPacket.from_ethernet
          [1;2;3;4;5;6; 7;8;9;10;11;12; 136;229;  0;40; 0;0;0;1; 8;0;  69;0;0;32] with
  | Ok p => (forallb isok (LaxSlicedPacketA.accessors p), wins (LaxSlicedPacketA.windows p),
             map (fun x => match x with
                           | LLeMacsec m => match lms_payload m with
                                            | LMpUnmodified e => Some (lep_incomplete e, lep_src e)
                                            | _ => None end
                           | _ => None end) (lsp_exts p))
  | _ => (false, [], [])
  end =
  (true, [Some (0, 26); Some (0, 14); Some (14, 12); Some (14, 8); Some (22, 4); Some (22, 4)],
   [Some (true, LsSlice)]).
Proof. vm_compute. reflexivity. Qed.

(* ======================================================================== *)
(* The strict single-layer CONSTRUCTORS themselves, on an arbitrary standalone slice
   (any pointer offset, any contents -- no byte-range hypothesis --, any length, accepted
   or rejected): the run never returns Bug, i.e. no unchecked read / from_raw_parts /
   checked index / usize subtraction / unwrap fails and the fuel of the extension walk
   (length + 1) is never exhausted.  One conjunct per public constructor (the 20 types of
   C01_single_layer_accessors; Ipv6ExtensionsSlice::from_slice for every start number;
   UdpSlice::from_slice_lax repeated here without the buffer hypothesis of
   C01_lax_single_no_oob).  Proofs: Parse/CtorsTotal.v. *)
From EP Require Import Parse.CtorsTotal.

Theorem C01_single_layer_ctor_no_oob : forall s,
  nobug (Ethernet2A.from_slice_without_fcs s) /\ nobug (Ethernet2A.from_slice_with_crc32_fcs s) /\
  nobug (LinuxSll.header_from_slice s) /\ nobug (LinuxSll.from_slice s) /\
  nobug (SingleVlanSlice.from_slice s) /\
  nobug (Macsec.header_from_slice s) /\ nobug (Macsec.from_slice s) /\
  nobug (ArpPacketSlice.from_slice s) /\
  nobug (Ipv4HeaderSlice.from_slice s) /\ nobug (Ipv4Slice.from_slice s) /\
  nobug (Ipv6HeaderSlice.from_slice s) /\ nobug (Ipv6Slice.from_slice s) /\
  nobug (IpSlice.from_slice s) /\
  nobug (IpAuthHeaderSlice.from_slice s) /\ nobug (Ipv6RawExtHeaderSlice.from_slice s) /\
  nobug (Ipv6FragmentHeaderSlice.from_slice s) /\
  (forall nh, nobug (Ipv6ExtensionsSlice.from_slice nh s)) /\
  nobug (UdpSlice.header_from_slice s) /\ nobug (UdpSlice.from_slice s) /\
  nobug (UdpSlice.from_slice_lax s) /\
  nobug (TcpHeaderSliceA.from_slice s) /\ nobug (TcpSlice.from_slice s) /\
  nobug (Icmpv4Slice.from_slice s) /\ nobug (Icmpv6Slice.from_slice s).
Proof. exact single_layer_ctor_no_bug. Qed.
Print Assumptions C01_single_layer_ctor_no_oob.

(* every slice STORED in the value a strict single-layer constructor returns is a
   from_raw_parts-window of the input slice: `sub_of w s` = exists k n, subU s k n = Ok w,
   i.e. k + n <= len s, the pointer of w is the pointer of s + k and its contents are the n
   bytes of s behind k (C01_window_arith gives the arithmetic reading).  This surfaces, for
   all 20 types, what C01_single_layer_accessors states through `win_ok` only for the windows
   handed back by accessors: in particular header / auth / payload of Ipv4Slice (and the
   windows its header and auth accessors return), header / extension window / payload of
   Ipv6Slice, header / payload of MacsecSlice, and the header slices of MACsec, IPv6, the
   fragment header and UDP *)
Theorem C01_single_layer_windows :
  (forall s e, Ethernet2A.from_slice_without_fcs s = Ok e \/ Ethernet2A.from_slice_with_crc32_fcs s = Ok e ->
     e2_slice e = s) /\
  (forall s h, LinuxSll.header_from_slice s = Ok h -> sub_of h s) /\
  (forall s x, LinuxSll.from_slice s = Ok x -> sub_of (fst x) s /\ snd x = s) /\
  (forall s v, SingleVlanSlice.from_slice s = Ok v -> v = s) /\
  (forall s h, Macsec.header_from_slice s = Ok h -> sub_of h s) /\
  (forall s m, Macsec.from_slice s = Ok m ->
     sub_of (ms_header m) s /\ sub_of (macsec_payload_slice m) s) /\
  (forall s a, ArpPacketSlice.from_slice s = Ok a -> sub_of a s) /\
  (forall s h, Ipv4HeaderSlice.from_slice s = Ok h -> sub_of h s) /\
  (forall s v, Ipv4Slice.from_slice s = Ok v \/ IpSlice.from_slice s = Ok (IpV4 v) ->
     sub_of (v4_header v) s /\ (forall a, v4_auth v = Some a -> sub_of a s) /\
     sub_of (ipp_slice (v4_payload v)) s /\ Forall (win_ok s) (Ipv4SliceA.windows v)) /\
  (forall s h, Ipv6HeaderSlice.from_slice s = Ok h -> sub_of h s) /\
  (forall s v, Ipv6Slice.from_slice s = Ok v \/ IpSlice.from_slice s = Ok (IpV6 v) ->
     sub_of (v6_header v) s /\ sub_of (x6_slice (v6_exts v)) s /\ sub_of (ipp_slice (v6_payload v)) s) /\
  (forall s h, IpAuthHeaderSlice.from_slice s = Ok h -> sub_of h s) /\
  (forall s h, Ipv6RawExtHeaderSlice.from_slice s = Ok h -> sub_of h s) /\
  (forall s h, Ipv6FragmentHeaderSlice.from_slice s = Ok h -> sub_of h s) /\
  (forall nh s x nx rest, Ipv6ExtensionsSlice.from_slice nh s = Ok (x, nx, rest) ->
     sub_of (x6_slice x) s /\ sub_of rest s) /\
  (forall s h, UdpSlice.header_from_slice s = Ok h -> sub_of h s) /\
  (forall s u, UdpSlice.from_slice s = Ok u \/ UdpSlice.from_slice_lax s = Ok u -> sub_of u s) /\
  (forall s h, TcpHeaderSliceA.from_slice s = Ok h -> sub_of h s) /\
  (forall s x, TcpSlice.from_slice s = Ok x -> snd x = s) /\
  (forall s v, Icmpv4Slice.from_slice s = Ok v -> v = s) /\
  (forall s v, Icmpv6Slice.from_slice s = Ok v -> v = s).
Proof. exact single_layer_stored_windows. Qed.
Print Assumptions C01_single_layer_windows.

(* ---- "the result depends only on the bytes of the slice, not on where it is located or
   on the bytes around it" (Parse/ShiftInv.v).  `from_X_at s` is the body of
   SlicedPacket::from_X with the input slice as a parameter (from_X_at (mk_slice bs) =
   SlicedPacket.from_X bs by definition); `sh k s` is s with its pointer moved by k
   (Equiv/ShiftProofs.v), `sh_pkt k` moves every slice stored in a result and leaves every
   number alone, `rmap f` maps Ok values and leaves Err and Bug values EQUAL. *)
From EP Require Import Equiv.Model Equiv.ShiftProofs Parse.ShiftInv.

Theorem C01_entry_at_mk_slice : forall bs et,
  from_ethernet_at (mk_slice bs) = SlicedPacket.from_ethernet bs /\
  from_linux_sll_at (mk_slice bs) = SlicedPacket.from_linux_sll bs /\
  from_ether_type_at et (mk_slice bs) = SlicedPacket.from_ether_type et bs /\
  from_ip_at (mk_slice bs) = SlicedPacket.from_ip bs.
Proof. exact at_mk_slice. Qed.
Print Assumptions C01_entry_at_mk_slice.

(* an input located k bytes into its allocation: the answer for (0, bs) with every stored
   pointer + k; errors (incl. layer_start_offset, which counts from the start of the
   slice) equal *)
Theorem C01_location_independent : forall k bs et,
  from_ethernet_at (k, bs) = rmap (sh_pkt k) (SlicedPacket.from_ethernet bs) /\
  from_linux_sll_at (k, bs) = rmap (sh_pkt k) (SlicedPacket.from_linux_sll bs) /\
  from_ether_type_at et (k, bs) = rmap (sh_pkt k) (SlicedPacket.from_ether_type et bs) /\
  from_ip_at (k, bs) = rmap (sh_pkt k) (SlicedPacket.from_ip bs).
Proof. exact strict_entry_located. Qed.
Print Assumptions C01_location_independent.

(* a window [pos, lim) of a larger buffer: the answer is that of a standalone copy of the
   window's bytes (moved by pos) -- no byte of bs outside the window has any influence *)
Theorem C01_surroundings_independent : forall bs s pos lim et,
  repr bs s pos lim ->
  let w := take (lim - pos) (drop pos bs) in
  from_ethernet_at s = rmap (sh_pkt pos) (SlicedPacket.from_ethernet w) /\
  from_linux_sll_at s = rmap (sh_pkt pos) (SlicedPacket.from_linux_sll w) /\
  from_ether_type_at et s = rmap (sh_pkt pos) (SlicedPacket.from_ether_type et w) /\
  from_ip_at s = rmap (sh_pkt pos) (SlicedPacket.from_ip w).
Proof. exact strict_entry_window. Qed.
Print Assumptions C01_surroundings_independent.

(* the same for every strict single-layer constructor and every slice *)
Theorem C01_single_layer_location_independent : forall k s,
  Ethernet2A.from_slice_without_fcs (sh k s) = rmap (sh_eth2 k) (Ethernet2A.from_slice_without_fcs s) /\
  Ethernet2A.from_slice_with_crc32_fcs (sh k s) = rmap (sh_eth2 k) (Ethernet2A.from_slice_with_crc32_fcs s) /\
  LinuxSll.header_from_slice (sh k s) = rmap (sh k) (LinuxSll.header_from_slice s) /\
  LinuxSll.from_slice (sh k s) = rmap (sh_pair k) (LinuxSll.from_slice s) /\
  SingleVlanSlice.from_slice (sh k s) = rmap (sh k) (SingleVlanSlice.from_slice s) /\
  Macsec.header_from_slice (sh k s) = rmap (sh k) (Macsec.header_from_slice s) /\
  Macsec.from_slice (sh k s) = rmap (sh_ms k) (Macsec.from_slice s) /\
  ArpPacketSlice.from_slice (sh k s) = rmap (sh k) (ArpPacketSlice.from_slice s) /\
  Ipv4HeaderSlice.from_slice (sh k s) = rmap (sh k) (Ipv4HeaderSlice.from_slice s) /\
  Ipv4Slice.from_slice (sh k s) = rmap (sh_v4 k) (Ipv4Slice.from_slice s) /\
  Ipv6HeaderSlice.from_slice (sh k s) = rmap (sh k) (Ipv6HeaderSlice.from_slice s) /\
  Ipv6Slice.from_slice (sh k s) = rmap (sh_v6 k) (Ipv6Slice.from_slice s) /\
  IpSlice.from_slice (sh k s) = rmap (sh_ip k) (IpSlice.from_slice s) /\
  IpAuthHeaderSlice.from_slice (sh k s) = rmap (sh k) (IpAuthHeaderSlice.from_slice s) /\
  Ipv6RawExtHeaderSlice.from_slice (sh k s) = rmap (sh k) (Ipv6RawExtHeaderSlice.from_slice s) /\
  Ipv6FragmentHeaderSlice.from_slice (sh k s) = rmap (sh k) (Ipv6FragmentHeaderSlice.from_slice s) /\
  (forall nh, Ipv6ExtensionsSlice.from_slice nh (sh k s) = rmap (sh_x6r k) (Ipv6ExtensionsSlice.from_slice nh s)) /\
  UdpSlice.header_from_slice (sh k s) = rmap (sh k) (UdpSlice.header_from_slice s) /\
  UdpSlice.from_slice (sh k s) = rmap (sh k) (UdpSlice.from_slice s) /\
  UdpSlice.from_slice_lax (sh k s) = rmap (sh k) (UdpSlice.from_slice_lax s) /\
  TcpHeaderSliceA.from_slice (sh k s) = rmap (sh k) (TcpHeaderSliceA.from_slice s) /\
  TcpSlice.from_slice (sh k s) = rmap (sh_tcp k) (TcpSlice.from_slice s) /\
  Icmpv4Slice.from_slice (sh k s) = rmap (sh k) (Icmpv4Slice.from_slice s) /\
  Icmpv6Slice.from_slice (sh k s) = rmap (sh k) (Icmpv6Slice.from_slice s).
Proof. exact single_layer_shift_invariant. Qed.
Print Assumptions C01_single_layer_location_independent.

(* ---- non-vacuity ---------------------------------------------------------- *)
(* rejected and accepted inputs of the constructors: truncated headers, a bad IHL, an IPv6
   chain whose last header is cut, an empty slice -- every run is Err (never Bug); and the
   unchecked primitives behind them DO fail when used without the length test *)
Definition ctor_outcome {A} (r : res A) : N :=
  match r with Ok _ => 0 | Err (ELen _) => 1 | Err (EContent _) => 2 | Bug _ => 3 end.

Example C01_ctor_ex :
  (ctor_outcome (Ipv4HeaderSlice.from_slice (mk_slice [69;0;0])),
   ctor_outcome (Ipv4HeaderSlice.from_slice (mk_slice (68 :: repeat 0 22))),
   ctor_outcome (Ipv4Slice.from_slice (mk_slice ([69;0;0;20; 0;0;0;0; 64;51;0;0; 1;2;3;4; 5;6;7;8] ++ [17;9;0;0]))),
   ctor_outcome (IpSlice.from_slice (mk_slice [])),
   ctor_outcome (IpSlice.from_slice (mk_slice [66])),
   ctor_outcome (Ipv6ExtensionsSlice.from_slice 0 (mk_slice [43;0;0;0;0;0;0;0; 59;1;0;0])),
   ctor_outcome (Ipv6ExtensionsSlice.from_slice 60 (mk_slice ([0;0] ++ repeat 0 6))),
   ctor_outcome (Macsec.from_slice (mk_slice [0;40;0;0;0;1;8;0])),
   ctor_outcome (TcpHeaderSliceA.from_slice (mk_slice (repeat 0 12 ++ [240] ++ repeat 0 7))),
   ctor_outcome (ArpPacketSlice.from_slice (7, [0;1;8;0;6;4;0;1]))) =
  (1, 2, 1, 1, 2, 1, 2, 1, 1, 1) /\
  subU (mk_slice [69;0;0]) 0 20 = Bug SITE_SUB /\ rdU (mk_slice []) 0 = Bug SITE_RD /\
  Ipv6ExtensionsSlice.walk 1 8 (mk_slice [43;0;0;0;0;0;0;0]) 60 false = Bug SITE_FUEL.
Proof. vm_compute. repeat split. Qed.

(* the Ethernet / VLAN / IPv4 / UDP packet of C01_accessors_ex located 1000 bytes into its
   allocation: same layers, every window 1000 later; cut to 47 bytes: the same error *)
Example C01_location_ex :
  match from_ethernet_at (1000, ex_pkt_acc) with
  | Ok p => wins (SlicedPacketA.windows p)
  | _ => []
  end =
  [Some (1000, 50); Some (1000, 14); Some (1014, 36);
   Some (1014, 36); Some (1014, 4); Some (1018, 32);
   Some (1018, 20); Some (1038, 12); Some (1038, 0);
   Some (1038, 12); Some (1038, 8); Some (1046, 4)] /\
  from_ethernet_at (1000, firstn 47 ex_pkt_acc) =
  Err (ELen (mkLenError 32 29 LsSlice LyIpv4Packet 18)) /\
  SlicedPacket.from_ethernet (firstn 47 ex_pkt_acc) =
  Err (ELen (mkLenError 32 29 LsSlice LyIpv4Packet 18)).
Proof. vm_compute. repeat split. Qed.

(* ======================================================================== *)
(* The public slice constructors that C01_single_layer_ctor_no_oob does not list, on an
   ARBITRARY slice / byte string (any pointer offset, contents, length; accepted or rejected):
     Ethernet2HeaderSlice::from_slice, SingleVlanHeaderSlice::from_slice (length test +
       from_raw_parts(ptr, 14 | 4); transliterated in Parse/CtorsTotal2.v, they are the first
       step of HdrModel's Ethernet2Header / SingleVlanHeader ::from_slice),
     Ipv4ExtensionsSlice::from_slice for every start number (model: LaxSlices.Ipv4Exts),
     the 11 typed ICMPv6 payload slices (`payload_ctor k`: XxxPayloadSlice::from_slice by kind;
       model: CtlMsg/Model.v, Icmpv6PayloadSlice) and the two enum constructors
       Icmpv6PayloadSlice::from_slice / from_type_u8, which only ever run one of them.
   No run reaches a failing from_raw_parts / checked index / unwrap (Bug, resp. UB in the
   vocabulary of CtlMsg); what an accepted value stores is a from_raw_parts window of the
   input (the payload slices: the input itself; the authentication header of an
   Ipv4ExtensionsSlice is the value IpAuthHeaderSlice::from_slice returns for the same slice,
   so C01_single_layer_accessors covers its accessors), and no accessor of an accepted payload slice
   (first_chunk().unwrap(), &slice[FIXED_PART_LEN..]) reaches its panic site.
   Proofs: Parse/CtorsTotal2.v. *)
From EP Require Import Parse.LaxSlices Parse.CtorsTotal2.

Theorem C01_remaining_ctors_no_oob :
  (forall s, nobug (Ethernet2HeaderSliceM.from_slice s)) /\
  (forall s, nobug (SingleVlanHeaderSliceM.from_slice s)) /\
  (forall nh s, nobug (Ipv4Exts.from_slice nh s)) /\
  (forall k s n, payload_ctor k s <> CtlMsg.Spec.UB n) /\
  (forall ty s n, P6.from_slice ty s <> CtlMsg.Spec.UB n) /\
  (forall t c s n, P6.from_type_u8 t c s <> CtlMsg.Spec.UB n) /\
  (forall s h, Ethernet2HeaderSliceM.from_slice s = Ok h -> s_len h = 14 /\ sub_of h s) /\
  (forall s h, SingleVlanHeaderSliceM.from_slice s = Ok h -> s_len h = 4 /\ sub_of h s) /\
  (forall nh s a nx rest, Ipv4Exts.from_slice nh s = Ok (a, nx, rest) ->
     sub_of rest s /\
     (forall h, a = Some h -> IpAuthHeaderSlice.from_slice s = Ok h /\ sub_of h s)) /\
  (forall k s p, payload_ctor k s = CtlMsg.Spec.Ok p ->
     p = (k, s) /\ forall n, P6.accessors p <> CtlMsg.Spec.UB n).
Proof. exact remaining_ctors_no_bug. Qed.
Print Assumptions C01_remaining_ctors_no_oob.

(* the transliterations are what the struct decoders of Parse/HdrModel.v run first, and the
   enum constructors run nothing but `payload_ctor` *)
Theorem C01_remaining_ctors_are_used :
  (forall s, EP.Parse.HdrModel.Ethernet2Header.from_slice s =
             (let* h := Ethernet2HeaderSliceM.from_slice s in
              let* rest := EP.Parse.HdrModel.idx_from s 14 in Ok (h, rest))) /\
  (forall s, EP.Parse.HdrModel.SingleVlanHeader.from_slice s =
             (let* h := SingleVlanHeaderSliceM.from_slice s in
              let* rest := EP.Parse.HdrModel.idx_from s 4 in Ok (h, rest))) /\
  (forall ty s, P6.from_slice ty s = payload_ctor (CtlMsg.Spec.payload_kind_of ty) s) /\
  (forall t c s, exists k, P6.from_type_u8 t c s = payload_ctor k s).
Proof. exact remaining_ctors_used. Qed.
Print Assumptions C01_remaining_ctors_are_used.

(* ---- non-vacuity ---------------------------------------------------------- *)
(* short inputs are rejected (Err / ErrLen), sufficient ones accepted with the stated window;
   the primitives behind the tests DO fail when run without them: from_raw_parts(ptr, 14) on
   13 bytes, the accessors of a Redirect payload slice built around the length test *)
Example C01_remaining_ctors_ex :
  (ctor_outcome (Ethernet2HeaderSliceM.from_slice (mk_slice (repeat 0 13))),
   match Ethernet2HeaderSliceM.from_slice (5, repeat 0 20) with Ok h => Some (win_of h) | _ => None end,
   ctor_outcome (SingleVlanHeaderSliceM.from_slice (mk_slice [1;2;3])),
   match SingleVlanHeaderSliceM.from_slice (mk_slice [1;2;3;4;5]) with Ok h => Some (win_of h) | _ => None end,
   ctor_outcome (Ipv4Exts.from_slice 51 (mk_slice [17;1;0;0; 0;0;0;1; 0;0;0;2])),
   ctor_outcome (Ipv4Exts.from_slice 51 (mk_slice [17;0;0;0; 0;0;0;1; 0;0;0;2])),
   match Ipv4Exts.from_slice 51 (mk_slice ([17;1;0;0; 0;0;0;1; 0;0;0;2] ++ [9;9])) with
   | Ok (Some h, nx, rest) => Some (win_of h, nx, win_of rest) | _ => None end) =
  (1, Some (5, 14), 1, Some (0, 4), 0, 2, Some ((0, 12), 17, (12, 2))) /\
  subU (mk_slice (repeat 0 13)) 0 14 = Bug SITE_SUB /\
  payload_ctor CtlMsg.Spec.PkRedirect (repeat 0 31) =
    CtlMsg.Spec.ErrLen (CtlMsg.Spec.mkLenError 32 31 CtlMsg.Spec.LsSlice CtlMsg.Spec.LIcmpv6 0) /\
  payload_ctor CtlMsg.Spec.PkRedirect (repeat 0 32) = CtlMsg.Spec.Ok (CtlMsg.Spec.PkRedirect, repeat 0 32) /\
  P6.accessors (CtlMsg.Spec.PkRedirect, repeat 0 31) = CtlMsg.Spec.UB 33 /\
  P6.from_type_u8 136 0 (repeat 0 15) =
    CtlMsg.Spec.ErrLen (CtlMsg.Spec.mkLenError 16 15 CtlMsg.Spec.LsSlice CtlMsg.Spec.LIcmpv6 0).
Proof. vm_compute. repeat split. Qed.

(* ---- packet-level accessors of a STRICT result, stored slice ->
   iterator compositions, LaxPacketHeaders::from_linux_sll ------------------------------------------

   (a) Parse/PacketAccess.v transliterates SlicedPacket::{payload_ether_type, ether_payload,
   ip_payload, is_ip_payload_fragmented, vlan, vlan_ids} (sliced_packet.rs 266-403); vlan_ids is the
   model of Defrag/PacketStep.v (`push_unchecked` on a full ArrayVec<VlanId, 3> = Bug SITE_PUSH).
   For every result of the four strict entry points: at most 3 link extensions, no packet-level
   accessor reaches Bug, vlan_ids yields at most as many ids as there are link extensions, and
   every sub-slice handed back lies inside the input with the input's bytes.  No `bytes_ok` needed.
   The accessor values / windows of this model are compared with the crate on every case
   (c01acc lines `peth`, `psll`, `pip`, `pet:<n>`).  LaxSlicedPacket::{vlan, vlan_ids,
   ether_payload, ip_payload} (the lax type has no other packet-level accessor) are covered by
   C01_lax_accessors_no_oob / C01_lax_windows_inside above.  Proofs: Parse/PacketAccessProofs.v. *)
From EP Require Import Parse.PacketAccess Parse.PacketAccessProofs.

Theorem C01_strict_packet_accessors_no_oob : forall bs et p, entry bs et p ->
  len (sp_exts p) <= LINK_EXTS_CAP /\
  (forall r, In r (SlicedPacketPA.packet_accessors p) -> forall b, r <> Bug b) /\
  (exists l, SlicedPacketPA.vlan_ids p = Ok l /\ len l <= len (sp_exts p) /\ len l <= LINK_EXTS_CAP).
Proof. exact strict_packet_accessors_no_bug. Qed.
Print Assumptions C01_strict_packet_accessors_no_oob.

Theorem C01_strict_packet_windows_inside : forall bs et p, entry bs et p ->
  forall r, In r (SlicedPacketPA.packet_windows p) ->
    exists w, r = Ok w /\ s_off w + s_len w <= len bs /\
              snd w = take (s_len w) (drop (s_off w) bs).
Proof. exact strict_packet_windows_inside. Qed.
Print Assumptions C01_strict_packet_windows_inside.

(* the whole strict result: SlicedPacketPA.accessors = SlicedPacketA.accessors ++ packet_accessors,
   SlicedPacketPA.windows = SlicedPacketA.windows ++ packet_windows *)
Theorem C01_strict_all_accessors_no_oob : forall bs et p, bytes_ok bs -> entry bs et p ->
  forall r, In r (SlicedPacketPA.accessors p) -> forall b, r <> Bug b.
Proof. exact strict_all_accessors_no_bug. Qed.
Print Assumptions C01_strict_all_accessors_no_oob.

Theorem C01_strict_all_windows_inside : forall bs et p, bytes_ok bs -> entry bs et p ->
  forall r, In r (SlicedPacketPA.windows p) ->
    exists w, r = Ok w /\ s_off w + s_len w <= len bs /\
              snd w = take (s_len w) (drop (s_off w) bs).
Proof. exact strict_all_windows_inside. Qed.
Print Assumptions C01_strict_all_windows_inside.

(* (b) stored slice -> iterator (Parse/StoredIter.v).  TcpSlice / TcpHeaderSlice::options_iterator =
   TcpOptionsIterator::from_slice(self.options()), iterator model TcpOpt/Model.v; Icmpv6Slice::
   payload_slice = Icmpv6PayloadSlice::from_type_u8(type_u8(), code_u8(), payload()), models of the
   enum constructor, the typed payload accessors and NdpOptionsIterator: CtlMsg/Model.v.
     tcp_iter_ok o      iterate (contents of o) returns (no OOB / Panic / fuel), at most one item per
                        byte, final state empty and exhausted, every Ok item shrinks the state, and
                        (bytes_ok) every iterator state is the from_raw_parts window o[k..]
     payload_slice_ok pw r   r is not UB; an accepted typed payload slice stores the contents of pw, its
                        accessors return, its options() area is a window pw[k..] and ndp_iter_ok
     ndp_iter_ok opts   NdpOptionsIterator over opts ends within length+1 calls, yields no UB item,
                        accessors of every accepted option return, at most len/8 accepted options,
                        which tile a prefix of opts
   single layers: EVERY slice value s, every value the constructor returns *)
From EP Require Import Parse.StoredIter.

Theorem C01_stored_iter_single_layer :
  (forall s x, TcpSlice.from_slice s = Ok x ->
     exists o, TcpSliceA.options x = Ok o /\ sub_of o s /\ s_len o = fst x - 20 /\ s_len o <= 40 /\
               tcp_iter_ok o) /\
  (forall s h, TcpHeaderSliceA.from_slice s = Ok h ->
     exists o, TcpHeaderSliceA.options h = Ok o /\ sub_of o s /\ s_len o = s_len h - 20 /\ s_len o <= 40 /\
               tcp_iter_ok o) /\
  (forall s v, Icmpv6Slice.from_slice s = Ok v ->
     exists t c pw,
       icmpv6_payload_slice v = Ok (pw, P6.from_type_u8 t c (snd pw)) /\
       sub_of pw s /\ s_len pw = s_len s - 8 /\
       payload_slice_ok pw (P6.from_type_u8 t c (snd pw))).
Proof. exact stored_iter_single_layer. Qed.
Print Assumptions C01_stored_iter_single_layer.

(* whole packets: `stored_transport bs t` = t is the transport slice of a result of one of the four
   strict or the three lax whole-packet entry points on bs.  The options window, the payload window,
   the NDP options area and every iterator state lie inside the input (`in_window bs w`: off + len <=
   len bs and the contents are the input's bytes there) *)
Theorem C01_packet_tcp_options_iter : forall bs hl s,
  bytes_ok bs -> stored_transport bs (TrTcp hl s) ->
  exists o, TcpSliceA.options (hl, s) = Ok o /\ sub_of o s /\ in_window bs o /\
            s_len o = hl - 20 /\ s_len o <= 40 /\ tcp_iter_in bs o.
Proof. exact packet_tcp_options_iter. Qed.
Print Assumptions C01_packet_tcp_options_iter.

Theorem C01_packet_icmp6_payload_slice : forall bs s,
  stored_transport bs (TrIcmpv6 s) ->
  exists t c pw,
    icmpv6_payload_slice s = Ok (pw, P6.from_type_u8 t c (snd pw)) /\
    sub_of pw s /\ in_window bs pw /\ s_len pw = s_len s - 8 /\
    payload_slice_in bs pw (P6.from_type_u8 t c (snd pw)).
Proof. exact packet_icmp6_payload_slice. Qed.
Print Assumptions C01_packet_icmp6_payload_slice.

(* pin the meaning of the predicates *)
Check (eq_refl : in_window = fun bs w =>
  s_off w + s_len w <= len bs /\ snd w = take (s_len w) (drop (s_off w) bs)).
Check (eq_refl : tail_window = fun o r =>
  exists k, k <= s_len o /\ subU o k (s_len o - k) = Ok (s_off o + k, r)).
Check (eq_refl : tcp_iter_in = fun bs o =>
  exists tr fin,
    TO.iterate (snd o) = TO.Ret (tr, fin) /\
    (length tr <= length (snd o))%nat /\
    fin = [] /\ (forall n, TO.next_n n fin = TO.Ret (repeat None n, [])) /\
    (forall pre e r post, tr = pre ++ (TO.Ok e, r) :: post -> len r < len (TO.last_rest (snd o) pre)) /\
    Forall (fun ir => exists k, k <= s_len o /\ in_window bs (s_off o + k, snd ir)) tr).
Check (eq_refl : stored_transport = fun bs t =>
  (exists et p, entry bs et p /\ sp_transport p = Some t) \/
  (exists et p, lax_entry bs et p /\ lsp_transport p = Some t)).

(* (c) LaxPacketHeaders::from_linux_sll never reaches Bug: corollary of C06_sll_start_laxheaders
   (Err | literal Ok | lh_behind 16 of from_ether_type behind the header) and
   C04_lax_headers_never_bug.  Parse/LaxHdrSll.v. *)
From EP Require Import Parse.LaxHdrSll.

Theorem C01_lax_headers_from_linux_sll_no_oob : forall bs b, bytes_ok bs ->
  EP.Parse.HdrLaxModel.LaxPacketHeaders.from_linux_sll bs <> Bug b.
Proof. exact lax_headers_from_linux_sll_never_bug. Qed.
Print Assumptions C01_lax_headers_from_linux_sll_no_oob.

(* ---- non-vacuity ---------------------------------------------------------- *)
(* the Ethernet / VLAN / IPv4 / UDP packet of C01_accessors_ex: the six packet-level accessor runs
   are Ok; ether_payload = payload of the VLAN slice (18+32, ether type 0x0800, LenSource::Slice),
   ip_payload 38+12, vlan = Single(14+36); vlan_ids = [5]; payload_ether_type = None (net is set).
   The accessor DOES reach its Bug site on a value no entry point returns: 4 VLAN entries *)
Example C01_strict_packet_accessors_ex :
  match SlicedPacket.from_ethernet ex_pkt_acc with
  | Ok p => Some (SlicedPacketPA.packet_accessors p, wins (SlicedPacketPA.packet_windows p),
                  SlicedPacketPA.vlan_ids p, SlicedPacketPA.payload_ether_type p,
                  SlicedPacketPA.is_ip_payload_fragmented p,
                  match SlicedPacketPA.ether_payload p with
                  | Ok (Some e) => Some (ep_ether_type e, ep_src e, win_of (ep_slice e))
                  | _ => None
                  end)
  | _ => None
  end =
  Some ([Ok tt; Ok tt; Ok tt; Ok tt; Ok tt; Ok tt],
        [Some (18, 32); Some (38, 12); Some (14, 36)],
        Ok [5], Ok None, Ok false, Some (2048, LsSlice, (18, 32))) /\
  EP.Defrag.PacketStep.vlan_ids_loop (repeat (LeVlan (0, [0;5;8;0])) 4) [] = Bug SITE_PUSH /\
  EP.Defrag.PacketStep.vlan_ids_loop (repeat (LeVlan (0, [0;5;8;0])) 3) [] = Ok [5; 5; 5].
Proof. vm_compute. repeat split. Qed.

(* IPv4 / TCP with data offset 7: options MSS 1460, NOP, window scale 7 at 40+8; the iterator yields
   the three options, the states are the tails 44.., 45.., 48.. of the window.
   IPv6 / ICMPv6 router solicitation with a source link-layer option: payload window 48+8, typed
   payload slice RouterSolicitation, options area = the payload, one NDP option *)
Definition ex_tcp_opts : bytes :=
  [69;0;0;52; 0;0;0;0; 64;6;0;0; 1;2;3;4; 5;6;7;8] ++
  [0;80; 1;187; 0;0;0;1; 0;0;0;2; 112;16; 16;0; 0;0; 0;0] ++ [2;4;5;180; 1; 3;3;7] ++ [9;9;9;9].
Definition ex_router_sol : bytes :=
  [96;0;0;0; 0;16; 58; 255] ++ repeat 1 16 ++ repeat 2 16 ++
  [133;0;0;0; 0;0;0;0] ++ [1;1; 10;11;12;13;14;15].

Example C01_stored_iter_ex :
  bytes_ok ex_tcp_opts /\ bytes_ok ex_router_sol /\
  (exists p hl s, SlicedPacket.from_ip ex_tcp_opts = Ok p /\ sp_transport p = Some (TrTcp hl s) /\
     stored_transport ex_tcp_opts (TrTcp hl s)) /\
  match SlicedPacket.from_ip ex_tcp_opts with
  | Ok (mkSliced _ _ _ (Some (TrTcp hl s))) =>
      match TcpSliceA.options (hl, s) with
      | Ok o => Some (win_of o, TO.iterate (snd o))
      | _ => None
      end
  | _ => None
  end =
  Some ((40, 8),
        TO.Ret ([(TO.Ok (TO.MaximumSegmentSize 1460), [1; 3; 3; 7]);
                 (TO.Ok TO.Noop, [3; 3; 7]); (TO.Ok (TO.WindowScale 7), [])], [])) /\
  match SlicedPacket.from_ip ex_router_sol with
  | Ok (mkSliced _ _ _ (Some (TrIcmpv6 s))) =>
      match icmpv6_payload_slice s with
      | Ok (pw, CtlMsg.Spec.Ok ps) =>
          Some (win_of pw, fst ps,
                match P6.accessors ps with
                | CtlMsg.Spec.Ok v =>
                    match pview_options v with
                    | Some o => Some (o, CtlMsg.Model.Ndp.collect (S (length o)) o)
                    | None => None
                    end
                | _ => None
                end)
      | _ => None
      end
  | _ => None
  end =
  Some ((48, 8), CtlMsg.Spec.PkRouterSolicitation,
        Some ([1; 1; 10; 11; 12; 13; 14; 15],
              Some [CtlMsg.Spec.IOk CtlMsg.Spec.KSrcLL [1; 1; 10; 11; 12; 13; 14; 15]])).
Proof.
  split; [apply bytes_okb_spec; vm_compute; reflexivity|].
  split; [apply bytes_okb_spec; vm_compute; reflexivity|].
  split.
  { (* the strict from_ip result, which is an `entry` (fourth arm) storing that TCP slice *)
    do 3 eexists. split; [vm_compute; reflexivity|]. split; [reflexivity|].
    left. exists 0. eexists. split; [right; right; right; vm_compute; reflexivity|reflexivity]. }
  vm_compute. repeat split.
Qed.

(* SLL / IPv4 / UDP: accepted; cut inside the IPv4 header: still Ok (lax); cut inside the SLL header: Err *)
Definition ex_sll_acc : bytes := [0;0; 0;1; 0;6; 1;2;3;4;5;6;0;0; 8;0] ++ skipn 18 ex_pkt_acc.
Example C01_lax_headers_from_linux_sll_ex :
  bytes_ok ex_sll_acc /\
  (match EP.Parse.HdrLaxModel.LaxPacketHeaders.from_linux_sll ex_sll_acc with Ok _ => 1 | Err _ => 2 | Bug _ => 3 end,
   match EP.Parse.HdrLaxModel.LaxPacketHeaders.from_linux_sll (firstn 30 ex_sll_acc) with Ok _ => 1 | Err _ => 2 | Bug _ => 3 end,
   match EP.Parse.HdrLaxModel.LaxPacketHeaders.from_linux_sll (firstn 10 ex_sll_acc) with Ok _ => 1 | Err _ => 2 | Bug _ => 3 end)
  = (1, 1, 2).
Proof. split; [apply bytes_okb_spec; vm_compute; reflexivity|vm_compute; reflexivity]. Qed.
