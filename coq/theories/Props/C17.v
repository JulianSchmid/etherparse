(* Props/C17.v -- property C17: typed control-message views (ICMPv4, ICMPv6,
   NDP payloads and options, IGMP, ARP Ethernet/IPv4) follow their formats.
   Each theorem is the named lemma of the
   proof files; the Examples are test vectors checked by evaluation.  Left sides: the model of
   the Rust code (CtlMsg/Model.v); right sides: the RFC tables (CtlMsg/Spec.v).
   All statements hold for every list of numbers (not only octets) unless a
   hypothesis says otherwise; the specifications never contain `UB`, so every
   equation also says that no unchecked read / unwrap / index of the modelled
   code is reachable out of bounds. *)
From EP Require Parse.ConstsAllOk.   (* every numeric `pub const` of the crate, regenerated from the source on every run, has its RFC / IANA value *)
From EP Require Import Base.Bytes CtlMsg.Spec CtlMsg.Model CtlMsg.Proofs.
Local Open Scope N_scope.

(* ---- ICMPv4: Icmpv4Slice::from_slice + icmp_type() + header_len() + payload() ---- *)
Theorem C17_icmp4 : forall bs, Icmpv4Slice.view bs = icmp4 bs.
Proof. exact icmp4_eq. Qed.
Print Assumptions C17_icmp4.

Theorem C17_icmp4_short : forall bs, len bs < 8 ->
  Icmpv4Slice.view bs = ErrLen (mkLenError 8 (len bs) LsSlice LIcmpv4 0).
Proof. exact icmp4_short. Qed.
Print Assumptions C17_icmp4_short.

(* every (type, code) outside the tables: raw form with type, code, octets 4..8 *)
Theorem C17_icmp4_unassigned : forall bs, 8 <= len bs ->
  lookup (byte_at bs 0) (byte_at bs 1) icmp4_fixed_table = None ->
  lookup (byte_at bs 0) (byte_at bs 1) icmp4_table = None ->
  Icmpv4Slice.view bs =
    Ok (V4Unknown (byte_at bs 0) (byte_at bs 1) (byte_at bs 4) (byte_at bs 5) (byte_at bs 6) (byte_at bs 7),
        8, drop 8 bs).
Proof. exact icmp4_unassigned. Qed.
Print Assumptions C17_icmp4_unassigned.

(* timestamp / timestamp reply: accepted iff exactly 20 octets *)
Theorem C17_icmp4_timestamp_exact : forall bs, 8 <= len bs ->
  (byte_at bs 0 = 13 \/ byte_at bs 0 = 14) -> byte_at bs 1 = 0 ->
  ((exists v, Icmpv4Slice.view bs = Ok v) <-> len bs = 20).
Proof. exact icmp4_timestamp_exact. Qed.
Print Assumptions C17_icmp4_timestamp_exact.

(* RFC-assigned types without a typed view in the crate (4, 6, 9, 10, 15, 16, 17, 18) are not in the
   typed tables.  This is a statement about the SPECIFICATION tables only (no model term): together
   with C17_icmp4_unassigned it gives the statement about the model, which is stated on its own as
   C17_icmp4_untyped_raw_model at the end of this file. *)
Theorem C17_icmp4_untyped_raw : forall t c, In t icmp4_untyped_assigned ->
  lookup t c icmp4_table = None /\ lookup t c icmp4_fixed_table = None.
Proof. exact icmp4_untyped_raw. Qed.
Print Assumptions C17_icmp4_untyped_raw.

(* ---- ICMPv6: Icmpv6Slice::from_slice + icmp_type() + payload() ---- *)
Theorem C17_icmp6 : forall bs, Icmpv6Slice.view bs = icmp6 bs.
Proof. exact icmp6_eq. Qed.
Print Assumptions C17_icmp6.

Theorem C17_icmp6_short : forall bs, len bs < 8 ->
  Icmpv6Slice.view bs = ErrLen (mkLenError 8 (len bs) LsSlice LIcmpv6 0).
Proof. exact icmp6_short. Qed.
Print Assumptions C17_icmp6_short.

Theorem C17_icmp6_unassigned : forall bs, 8 <= len bs -> len bs <= MAX_ICMPV6_BYTE_LEN ->
  lookup (byte_at bs 0) (byte_at bs 1) icmp6_table = None ->
  Icmpv6Slice.view bs =
    Ok (V6Unknown (byte_at bs 0) (byte_at bs 1) (byte_at bs 4) (byte_at bs 5) (byte_at bs 6) (byte_at bs 7),
        drop 8 bs).
Proof. exact icmp6_unassigned. Qed.
Print Assumptions C17_icmp6_unassigned.

(* ---- NDP payloads: Icmpv6Slice::payload_slice() and every accessor ---- *)
Theorem C17_ndp_payload : forall bs, Icmpv6PayloadSlice.payload_slice_view bs = icmp6_payload bs.
Proof. exact payload_eq. Qed.
Print Assumptions C17_ndp_payload.

(* the second route, Icmpv6PayloadSlice::from_slice(&icmp_type, payload), agrees *)
Theorem C17_ndp_payload_by_type : forall bs,
  Icmpv6PayloadSlice.payload_slice_view_by_type bs = icmp6_payload bs.
Proof. exact payload_by_type_eq. Qed.
Print Assumptions C17_ndp_payload_by_type.

(* fixed / variable split: fixed part 0/8/16/16/32 octets after the 8-octet header *)
Theorem C17_ndp_payload_split : forall bs ty p, icmp6 bs = Ok (ty, p) ->
  p = drop 8 bs /\
  (ndp_fixed_len (payload_kind_of ty) <= len p ->
   Icmpv6PayloadSlice.payload_slice_view bs = Ok (ndp_payload_view (payload_kind_of ty) p)) /\
  (len p < ndp_fixed_len (payload_kind_of ty) ->
   Icmpv6PayloadSlice.payload_slice_view bs =
     ErrLen (mkLenError (ndp_fixed_len (payload_kind_of ty)) (len p) LsSlice LIcmpv6 0)).
Proof. exact ndp_payload_split. Qed.
Print Assumptions C17_ndp_payload_split.

(* ---- NDP options iterator ---- *)
(* running the iterator to exhaustion never runs out of fuel, yields exactly the
   declarative item sequence; the accepted options tile the area (their
   concatenation followed by the rejected rest is the area), the rest is empty
   or rejected with the documented error as last item; every accepted option
   has the RFC shape and its accessors return the fields at the RFC offsets;
   at most len/8 options *)
Theorem C17_ndp_options : forall area,
  exists items,
    Ndp.collect (S (length area)) area = Some items /\
    items = parse_opts (length area) area /\
    opts_tile area items /\
    (exists rest, area = ok_bytes items ++ rest /\
       ((rest = [] /\ Forall is_ok items) \/
        (rest <> [] /\ opt_reject rest = true /\
         exists oks, items = oks ++ [IErr (opt_error rest)] /\ Forall is_ok oks))) /\
    Forall (fun i => match i with IOk k s => opt_shape_ok k s /\ Ndp.opt_accessors k s = Ok (opt_view k s)
                     | IErr _ => True | IUB _ => False end) items /\
    ok_count items <= len area / 8.
Proof. exact ndp_options_full. Qed.
Print Assumptions C17_ndp_options.

(* accept/reject is decided exactly by opts_tile: any sequence satisfying the
   relation is the one the iterator yields *)
Theorem C17_ndp_options_unique : forall area items,
  opts_tile area items -> Ndp.collect (S (length area)) area = Some items.
Proof. exact ndp_options_unique. Qed.
Print Assumptions C17_ndp_options_unique.

(* reject <-> fewer than 2 octets, zero length units, length*8 beyond the rest,
   or a size different from the type's fixed size *)
Theorem C17_ndp_reject_iff : forall r, r <> [] ->
  (opt_reject r = true <->
   len r < 2 \/ byte_at r 1 = 0 \/ len r < byte_at r 1 * 8 \/
   exists u, opt_fixed_units (byte_at r 0) = Some u /\ byte_at r 1 <> u).
Proof. exact opt_reject_iff. Qed.
Print Assumptions C17_ndp_reject_iff.

(* one step: an accepted option is a prefix of the state, the new state is the
   rest; after an error the iterator is exhausted *)
Theorem C17_ndp_next_ok : forall r k s r', Ndp.next r = Some (IOk k s, r') -> r = s ++ r' /\ 8 <= len s.
Proof. exact next_ok_prefix. Qed.
Print Assumptions C17_ndp_next_ok.

Theorem C17_ndp_next_err_exhausted : forall r e r',
  Ndp.next r = Some (IErr e, r') -> r' = [] /\ Ndp.next r' = None.
Proof. exact next_err_exhausted. Qed.
Print Assumptions C17_ndp_next_err_exhausted.

Theorem C17_ndp_option_fields : forall k s, opt_shape_ok k s ->
  Ndp.opt_accessors k s = Ok (opt_view k s).
Proof. exact opt_accessors_spec. Qed.
Print Assumptions C17_ndp_option_fields.

(* ---- IGMP ---- *)
Theorem C17_igmp : forall bs, Igmp.view bs = igmp bs.
Proof. exact igmp_eq. Qed.
Print Assumptions C17_igmp.

Theorem C17_igmp_group_record : forall bs, Igmp.group_record_from_slice bs = group_record bs.
Proof. exact group_record_eq. Qed.
Print Assumptions C17_igmp_group_record.

(* derived octet fields: max resp code / QQIC floating point, Resv / S / QRV (all 256 values) *)
Theorem C17_igmp_byte_fields : forall c, c < 256 ->
  Igmp.as_10th_secs c = max_resp_time c /\ Igmp.flags c = query_flags c /\
  Igmp.s_flag c = query_s_flag c /\ Igmp.qrv c = query_qrv c.
Proof. exact igmp_byte_fields. Qed.
Print Assumptions C17_igmp_byte_fields.

(* ---- ARP ---- *)
Theorem C17_arp_view : forall bs, Arp.slice_view bs = arp_view bs.
Proof. exact arp_view_eq. Qed.
Print Assumptions C17_arp_view.

Theorem C17_arp_eth_ipv4 : forall bs, bytes_ok bs -> Arp.eth_ipv4_view bs = arp_eth_ipv4 bs.
Proof. exact arp_eth_ipv4_eq. Qed.
Print Assumptions C17_arp_eth_ipv4.

(* ---- non-vacuity ---- *)
(* ICMPv4: fragmentation needed with next-hop MTU 1500; code 16 is unassigned; a
   timestamp of 20 octets and one of 21 octets; source quench stays raw *)
Example C17_ex_icmp4_frag :
  icmp4 [3; 4; 0; 0; 0; 0; 5; 220; 69; 0] = Ok (V4DestinationUnreachable (DuFragmentationNeeded 1500), 8, [69; 0])
  /\ Icmpv4Slice.view [3; 4; 0; 0; 0; 0; 5; 220; 69; 0] = icmp4 [3; 4; 0; 0; 0; 0; 5; 220; 69; 0].
Proof. vm_compute. repeat split. Qed.
Example C17_ex_icmp4_unassigned_code :
  icmp4 [3; 16; 0; 0; 1; 2; 3; 4] = Ok (V4Unknown 3 16 1 2 3 4, 8, []).
Proof. vm_compute; reflexivity. Qed.
Example C17_ex_icmp4_timestamp :
  icmp4 [13; 0; 0; 0; 0; 1; 0; 2; 0; 0; 0; 3; 0; 0; 0; 4; 0; 0; 1; 0]
    = Ok (V4TimestampRequest (mkTimestamp 1 2 3 4 256), 20, [])
  /\ icmp4 [13; 0; 0; 0; 0; 1; 0; 2; 0; 0; 0; 3; 0; 0; 0; 4; 0; 0; 1; 0; 9]
    = ErrLen (mkLenError 20 21 LsSlice LIcmpv4Timestamp 0)
  /\ icmp4 [4; 0; 0; 0; 0; 0; 0; 0] = Ok (V4Unknown 4 0 0 0 0 0, 8, []).
Proof. vm_compute. repeat split. Qed.
Example C17_ex_icmp4_hyp : 8 <= len [3; 16; 0; 0; 1; 2; 3; 4]
  /\ lookup 3 16 icmp4_fixed_table = None /\ lookup 3 16 icmp4_table = None
  /\ In 4 icmp4_untyped_assigned.
Proof.
  split; [vm_compute; discriminate|].
  split; [reflexivity|]. split; [reflexivity|]. cbn. tauto.
Qed.
(* ICMPv6: router advertisement with M set, O clear; destination unreachable code 7 is raw *)
Example C17_ex_icmp6 :
  icmp6 [134; 0; 0; 0; 64; 128; 7; 8] = Ok (V6RouterAdvertisement 64 true false 1800, [])
  /\ icmp6 [1; 7; 0; 0; 1; 2; 3; 4; 5] = Ok (V6Unknown 1 7 1 2 3 4, [5])
  /\ Icmpv6Slice.view [136; 0; 0; 0; 96; 0; 0; 0] = Ok (V6NeighborAdvertisement false true true, []).
Proof. vm_compute. repeat split. Qed.
(* NDP payload: a neighbour solicitation with 16 target octets and an 8-octet option; a short one *)
Example C17_ex_ndp_payload :
  icmp6_payload ([135; 0; 0; 0; 0; 0; 0; 0] ++ [254; 128; 0; 0; 0; 0; 0; 0; 0; 0; 0; 0; 0; 0; 0; 1] ++ [1; 1; 2; 3; 4; 5; 6; 7])
    = Ok (PvNeighborSolicitation [254; 128; 0; 0; 0; 0; 0; 0; 0; 0; 0; 0; 0; 0; 0; 1] [1; 1; 2; 3; 4; 5; 6; 7])
  /\ icmp6_payload [135; 0; 0; 0; 0; 0; 0; 0; 1; 2; 3] = ErrLen (mkLenError 16 3 LsSlice LIcmpv6 0).
Proof. vm_compute. repeat split. Qed.
(* NDP options: SLLA (8) + MTU (8) + a prefix option with length 3 (rejected: fixed size 4) *)
Example C17_ex_ndp_options :
  Ndp.collect 41 ([1; 1; 2; 3; 4; 5; 6; 7] ++ [5; 1; 0; 0; 0; 0; 5; 220] ++ [3; 3; 0; 0; 0; 0; 0; 0; 0; 0; 0; 0; 0; 0; 0; 0; 0; 0; 0; 0; 0; 0; 0; 0])
    = Some [IOk KSrcLL [1; 1; 2; 3; 4; 5; 6; 7]; IOk KMtu [5; 1; 0; 0; 0; 0; 5; 220];
            IErr (UnexpectedSize 3 32 24)]
  /\ Ndp.opt_accessors KMtu [5; 1; 0; 0; 0; 0; 5; 220] = Ok (OvMtu 1500)
  /\ Ndp.collect 9 [7; 0; 0; 0; 0; 0; 0; 0] = Some [IErr (ZeroLength 7)]
  /\ Ndp.collect 9 [7; 2; 0; 0; 0; 0; 0; 0] = Some [IErr (UnexpectedEndOfSlice 7 16 8)].
Proof. vm_compute. repeat split. Qed.
Example C17_ex_ndp_shape : opt_shape_ok KMtu [5; 1; 0; 0; 0; 0; 5; 220].
Proof.
  exists 5, 1, [0; 0; 0; 0; 5; 220]. repeat split; try reflexivity; try discriminate.
  intros u H. inversion H. reflexivity.
Qed.
(* IGMP: v2 query (8 octets), 10 octets rejected, v3 query (12 octets), v3 report *)
Example C17_ex_igmp :
  igmp [17; 100; 0; 0; 224; 0; 0; 1] = Ok (IgMembershipQuery 100 224 0 0 1, 0, 8, [])
  /\ igmp [17; 100; 0; 0; 224; 0; 0; 1; 0; 0] = ErrLen (mkLenError 12 10 LsSlice LIgmp 0)
  /\ igmp [17; 100; 0; 0; 224; 0; 0; 1; 2; 125; 0; 1; 10; 0; 0; 1]
       = Ok (IgMembershipQueryWithSources 100 224 0 0 1 2 125 1, 0, 12, [10; 0; 0; 1])
  /\ igmp [34; 0; 0; 0; 0; 0; 0; 2] = Ok (IgMembershipReportV3 0 0 2, 0, 8, [])
  /\ igmp [33; 9; 0; 0; 1; 2; 3; 4] = Ok (IgUnknown 33 9 1 2 3 4, 0, 8, [])
  /\ max_resp_time 200 = 3072.
Proof. vm_compute. repeat split. Qed.
(* ARP: an Ethernet/IPv4 request; the same with hardware address size 5 *)
Example C17_ex_arp :
  arp_eth_ipv4 [0; 1; 8; 0; 6; 4; 0; 1; 1; 2; 3; 4; 5; 6; 10; 0; 0; 1; 0; 0; 0; 0; 0; 0; 10; 0; 0; 2]
    = ArpOk (mkArpEthIpv4 1 [1; 2; 3; 4; 5; 6] [10; 0; 0; 1] [0; 0; 0; 0; 0; 0] [10; 0; 0; 2])
  /\ arp_eth_ipv4 [0; 1; 8; 0; 5; 4; 0; 1; 1; 2; 3; 4; 5; 10; 0; 0; 1; 0; 0; 0; 0; 0; 10; 0; 0; 2]
    = ArpFromErr (NonMatchingHwAddrSize 5)
  /\ bytes_ok [0; 1; 8; 0; 6; 4; 0; 1; 1; 2; 3; 4; 5; 6; 10; 0; 0; 1; 0; 0; 0; 0; 0; 0; 10; 0; 0; 2].
Proof.
  split; [vm_compute; reflexivity|]. split; [vm_compute; reflexivity|].
  apply bytes_okb_spec. vm_compute. reflexivity.
Qed.

(* (1) The typed NDP option slices constructed DIRECTLY from arbitrary bytes (not through the
   iterator, where option id and length always fit): SourceLinkLayerAddressOptionSlice /
   TargetLinkLayerAddressOptionSlice / PrefixInformationOptionSlice (= length check +
   PrefixInformation::from_bytes, the checks of the owned PrefixInformation::from_slice) /
   RedirectedHeaderOptionSlice / MtuOptionSlice / UnknownNdpOptionSlice ::from_slice.  For every
   byte string each constructor equals the closed form below: which check fails first, the exact
   `UnexpectedSize` / `UnexpectedHeader` / `ZeroLength` record (fields at the RFC 4861 4.6 offsets:
   Type = octet 0, Length = octet 1 in units of 8 octets; the error records are crate API), accept
   iff the option has the RFC shape; never an out-of-range unwrap / index (no NUB).
   (2) C17_icmp4_untyped_raw above is a statement about the specification tables only;
   C17_icmp4_untyped_raw_model is the statement about the model. *)
From EP Require Import CtlMsg.NdpOptCtors.

(* Source (expected = 1) / Target (expected = 2) link-layer address option *)
Theorem C17_ndp_ctor_link_layer : forall expected s,
  Ndp.link_layer_from_slice expected s =
    if len s <? 2 then Ndp.NErr (UnexpectedSize (byte_at s 0) 2 (len s))
    else if negb (byte_at s 0 =? expected) then
      Ndp.NErr (UnexpectedHeader expected (byte_at s 0) (byte_at s 1) (byte_at s 1))
    else if byte_at s 1 =? 0 then Ndp.NErr (ZeroLength (byte_at s 0))
    else if negb (byte_at s 1 * 8 =? len s) then
      Ndp.NErr (UnexpectedSize (byte_at s 0) (byte_at s 1 * 8) (len s))
    else Ndp.NOk s.
Proof. exact link_layer_ctor_eq. Qed.
Print Assumptions C17_ndp_ctor_link_layer.

(* Prefix information: exactly 32 octets, then Type 3 and Length 4 *)
Theorem C17_ndp_ctor_prefix : forall s,
  Ndp.prefix_information_from_slice s =
    if negb (len s =? 32) then Ndp.NErr (UnexpectedSize 3 32 (len s))
    else if (byte_at s 0 =? 3) && (byte_at s 1 =? 4) then Ndp.NOk s
    else Ndp.NErr (UnexpectedHeader 3 (byte_at s 0) 4 (byte_at s 1)).
Proof. exact prefix_ctor_eq. Qed.
Print Assumptions C17_ndp_ctor_prefix.

(* Redirected header: at least the 8 fixed octets, Type 4, Length <> 0, Length * 8 = size *)
Theorem C17_ndp_ctor_redirected : forall s,
  Ndp.redirected_header_from_slice s =
    if len s <? 8 then Ndp.NErr (UnexpectedSize 4 8 (len s))
    else if negb (byte_at s 0 =? 4) then
      Ndp.NErr (UnexpectedHeader 4 (byte_at s 0) (byte_at s 1) (byte_at s 1))
    else if byte_at s 1 =? 0 then Ndp.NErr (ZeroLength (byte_at s 0))
    else if negb (byte_at s 1 * 8 =? len s) then
      Ndp.NErr (UnexpectedSize (byte_at s 0) (byte_at s 1 * 8) (len s))
    else Ndp.NOk s.
Proof. exact redirected_ctor_eq. Qed.
Print Assumptions C17_ndp_ctor_redirected.

(* MTU: exactly 8 octets, then Type 5 and Length 1 *)
Theorem C17_ndp_ctor_mtu : forall s,
  Ndp.mtu_from_slice s =
    if negb (len s =? 8) then Ndp.NErr (UnexpectedSize 5 8 (len s))
    else if (byte_at s 0 =? 5) && (byte_at s 1 =? 1) then Ndp.NOk s
    else Ndp.NErr (UnexpectedHeader 5 (byte_at s 0) 1 (byte_at s 1)).
Proof. exact mtu_ctor_eq. Qed.
Print Assumptions C17_ndp_ctor_mtu.

(* Unknown option slice: the generic rule only, the type octet is not looked at *)
Theorem C17_ndp_ctor_unknown : forall s,
  Ndp.unknown_from_slice s =
    if len s <? 2 then Ndp.NErr (UnexpectedSize (byte_at s 0) 2 (len s))
    else if byte_at s 1 =? 0 then Ndp.NErr (ZeroLength (byte_at s 0))
    else if negb (byte_at s 1 * 8 =? len s) then
      Ndp.NErr (UnexpectedSize (byte_at s 0) (byte_at s 1 * 8) (len s))
    else Ndp.NOk s.
Proof. exact unknown_ctor_eq. Qed.
Print Assumptions C17_ndp_ctor_unknown.

(* acceptance, all six constructors (typed_ctor k = the constructor of kind k): exactly the
   options with at least Type and Length, the constructor's Type, Length <> 0, size Length * 8
   and -- for the typed kinds -- the fixed Length of the type (3: 4, 5: 1) *)
Theorem C17_ndp_ctor_accept_iff : forall k s,
  (exists r, typed_ctor k s = Ndp.NOk r) <->
  exists ty lu tl, s = ty :: lu :: tl /\ kind_type_ok k ty /\ lu <> 0 /\ len s = lu * 8 /\
    (k <> KUnknownOpt -> forall u, opt_fixed_units ty = Some u -> lu = u).
Proof. exact typed_ctor_accept_iff. Qed.
Print Assumptions C17_ndp_ctor_accept_iff.
Check (eq_refl : typed_ctor =
  fun k s => match k with
             | KSrcLL => Ndp.link_layer_from_slice 1 s
             | KTgtLL => Ndp.link_layer_from_slice 2 s
             | KPrefix => Ndp.prefix_information_from_slice s
             | KRedir => Ndp.redirected_header_from_slice s
             | KMtu => Ndp.mtu_from_slice s
             | KUnknownOpt => Ndp.unknown_from_slice s
             end).
Check (eq_refl : kind_type_ok =
  fun k ty => match k with
              | KSrcLL => ty = 1 | KTgtLL => ty = 2 | KPrefix => ty = 3 | KRedir => ty = 4
              | KMtu => ty = 5 | KUnknownOpt => True
              end).

(* an accepted slice is the input; for the five typed kinds it has the option shape of the
   specification and its accessors return the RFC fields *)
Theorem C17_ndp_ctor_ok : forall k s r, typed_ctor k s = Ndp.NOk r ->
  r = s /\ (k <> KUnknownOpt -> opt_shape_ok k s /\ Ndp.opt_accessors k s = Ok (opt_view k s)).
Proof. exact typed_ctor_ok. Qed.
Print Assumptions C17_ndp_ctor_ok.

Theorem C17_ndp_ctor_no_ub : forall k s n, typed_ctor k s <> Ndp.NUB n.
Proof. exact typed_ctor_no_ub. Qed.
Print Assumptions C17_ndp_ctor_no_ub.

(* the model hands every message of an RFC-assigned type without a typed view (4, 6, 9, 10, 15,
   16, 17, 18), with any code, out in the raw form with header length 8 *)
Theorem C17_icmp4_untyped_raw_model : forall bs, 8 <= len bs ->
  In (byte_at bs 0) icmp4_untyped_assigned ->
  Icmpv4Slice.view bs =
    Ok (V4Unknown (byte_at bs 0) (byte_at bs 1) (byte_at bs 4) (byte_at bs 5) (byte_at bs 6) (byte_at bs 7),
        8, drop 8 bs).
Proof. exact icmp4_untyped_raw_model. Qed.
Print Assumptions C17_icmp4_untyped_raw_model.
Check (eq_refl : icmp4_untyped_assigned = [4; 6; 9; 10; 15; 16; 17; 18]).

(* non-vacuity: a prefix option read as MTU / with a wrong Length / one octet short; an MTU option
   with Type 3; a link-layer option of the other kind; redirected header shorter than 8 *)
Example C17_ex_ndp_ctors :
  let pfx := [3; 4; 64; 192; 0; 0; 0; 1; 0; 0; 0; 2; 0; 0; 0; 0;
              254; 128; 0; 0; 0; 0; 0; 0; 0; 0; 0; 0; 0; 0; 0; 1] in
  Ndp.prefix_information_from_slice pfx = Ndp.NOk pfx /\
  Ndp.opt_accessors KPrefix pfx =
    Ok (OvPrefix 64 true true 1 2 [254; 128; 0; 0; 0; 0; 0; 0; 0; 0; 0; 0; 0; 0; 0; 1]) /\
  Ndp.prefix_information_from_slice (5 :: tl pfx) = Ndp.NErr (UnexpectedHeader 3 5 4 4) /\
  Ndp.prefix_information_from_slice (3 :: 5 :: tl (tl pfx)) = Ndp.NErr (UnexpectedHeader 3 3 4 5) /\
  Ndp.prefix_information_from_slice (tl pfx) = Ndp.NErr (UnexpectedSize 3 32 31) /\
  Ndp.mtu_from_slice [3; 1; 0; 0; 0; 0; 5; 220] = Ndp.NErr (UnexpectedHeader 5 3 1 1) /\
  Ndp.mtu_from_slice [5; 1; 0; 0; 0; 0; 5; 220] = Ndp.NOk [5; 1; 0; 0; 0; 0; 5; 220] /\
  Ndp.link_layer_from_slice 1 [2; 1; 1; 2; 3; 4; 5; 6] = Ndp.NErr (UnexpectedHeader 1 2 1 1) /\
  Ndp.link_layer_from_slice 2 [2; 1; 1; 2; 3; 4; 5; 6] = Ndp.NOk [2; 1; 1; 2; 3; 4; 5; 6] /\
  Ndp.link_layer_from_slice 1 [1] = Ndp.NErr (UnexpectedSize 1 2 1) /\
  Ndp.redirected_header_from_slice [4; 1; 0; 0] = Ndp.NErr (UnexpectedSize 4 8 4) /\
  Ndp.redirected_header_from_slice [4; 2; 0; 0; 0; 0; 0; 0] = Ndp.NErr (UnexpectedSize 4 16 8) /\
  Ndp.unknown_from_slice [3; 1; 0; 0; 0; 0; 0; 0] = Ndp.NOk [3; 1; 0; 0; 0; 0; 0; 0].
Proof. vm_compute. repeat split. Qed.
Example C17_ex_icmp4_untyped_model : 8 <= len [6; 9; 0; 0; 1; 2; 3; 4; 5] /\
  In (byte_at [6; 9; 0; 0; 1; 2; 3; 4; 5] 0) icmp4_untyped_assigned /\
  Icmpv4Slice.view [6; 9; 0; 0; 1; 2; 3; 4; 5] = Ok (V4Unknown 6 9 1 2 3 4, 8, [5]).
Proof. split; [vm_compute; discriminate|]. split; [cbn; tauto|vm_compute; reflexivity]. Qed.

(* "reject exactly the inputs that are too short or whose length units
   are ... inconsistent" as NAMED iff statements for ICMPv4, ICMPv6, IGMP and ARP (so far exact
   only implicitly, through the equalities with the specification functions above).  Each
   theorem: a LenError is returned exactly for the named inputs, a value exactly for all others,
   never the out-of-bounds marker; the `_record` theorems give the error record of each class.
   Lemmas: CtlMsg/RejectIff.v (compositions of the equalities above; no new model). *)
From EP Require Import CtlMsg.RejectIff.

(* Icmpv4Slice::from_slice: fewer than 8 octets, or a timestamp / timestamp reply (13 / 14, code 0)
   that is not exactly 20 octets long *)
Theorem C17_icmp4_reject_iff : forall bs,
  let R := len bs < 8 \/ ((byte_at bs 0 = 13 \/ byte_at bs 0 = 14) /\ byte_at bs 1 = 0 /\ len bs <> 20) in
  ((exists e, Icmpv4Slice.view bs = ErrLen e) <-> R) /\
  ((exists v, Icmpv4Slice.view bs = Ok v) <-> ~ R) /\
  (forall n, Icmpv4Slice.view bs <> UB n).
Proof. exact icmp4_reject_iff. Qed.
Print Assumptions C17_icmp4_reject_iff.

Theorem C17_icmp4_reject_record : forall bs e, Icmpv4Slice.view bs = ErrLen e ->
  (len bs < 8 /\ e = mkLenError 8 (len bs) LsSlice LIcmpv4 0) \/
  (8 <= len bs /\ byte_at bs 0 = 13 /\ byte_at bs 1 = 0 /\ len bs <> 20 /\
   e = mkLenError 20 (len bs) LsSlice LIcmpv4Timestamp 0) \/
  (8 <= len bs /\ byte_at bs 0 = 14 /\ byte_at bs 1 = 0 /\ len bs <> 20 /\
   e = mkLenError 20 (len bs) LsSlice LIcmpv4TimestampReply 0).
Proof. exact icmp4_reject_record. Qed.
Print Assumptions C17_icmp4_reject_record.

(* Icmpv6Slice::from_slice: fewer than 8 octets, or more than 2^32-1 (the crate's own bound; no
   IPv6 payload, not even a jumbogram, can be longer) *)
Theorem C17_icmp6_reject_iff : forall bs,
  let R := len bs < 8 \/ 4294967295 < len bs in
  ((exists e, Icmpv6Slice.view bs = ErrLen e) <-> R) /\
  ((exists v, Icmpv6Slice.view bs = Ok v) <-> ~ R) /\
  (forall n, Icmpv6Slice.view bs <> UB n).
Proof. exact icmp6_reject_iff. Qed.
Print Assumptions C17_icmp6_reject_iff.

Theorem C17_icmp6_reject_record : forall bs e, Icmpv6Slice.view bs = ErrLen e ->
  (len bs < 8 /\ e = mkLenError 8 (len bs) LsSlice LIcmpv6 0) \/
  (4294967295 < len bs /\ e = mkLenError 4294967295 (len bs) LsSlice LIcmpv6 0).
Proof. exact icmp6_reject_record. Qed.
Print Assumptions C17_icmp6_reject_record.

(* IgmpHeader::from_slice: fewer than 8 octets, or a membership query (0x11) of 9, 10 or 11 octets
   (neither the 8-octet v1/v2 query nor a v3 query of at least 12 octets) *)
Theorem C17_igmp_reject_iff : forall bs,
  let R := len bs < 8 \/ (byte_at bs 0 = 17 /\ 8 < len bs /\ len bs < 12) in
  ((exists e, Igmp.view bs = ErrLen e) <-> R) /\
  ((exists v, Igmp.view bs = Ok v) <-> ~ R) /\
  (forall n, Igmp.view bs <> UB n).
Proof. exact igmp_reject_iff. Qed.
Print Assumptions C17_igmp_reject_iff.

Theorem C17_igmp_reject_record : forall bs e, Igmp.view bs = ErrLen e ->
  (len bs < 8 /\ e = mkLenError 8 (len bs) LsSlice LIgmp 0) \/
  (byte_at bs 0 = 17 /\ 8 < len bs /\ len bs < 12 /\ e = mkLenError 12 (len bs) LsSlice LIgmp 0).
Proof. exact igmp_reject_record. Qed.
Print Assumptions C17_igmp_reject_record.

(* ReportGroupRecordV3Header::from_slice: fewer than the 8 octets of the record header *)
Theorem C17_igmp_group_record_reject_iff : forall bs,
  ((exists e, Igmp.group_record_from_slice bs = ErrLen e) <-> len bs < 8) /\
  ((exists v, Igmp.group_record_from_slice bs = Ok v) <-> ~ len bs < 8) /\
  (forall n, Igmp.group_record_from_slice bs <> UB n).
Proof. exact group_record_reject_iff. Qed.
Print Assumptions C17_igmp_group_record_reject_iff.

(* ArpPacketSlice::from_slice: fewer than the 8 fixed octets, or fewer than the fixed octets plus
   the four addresses announced by the two length octets (hardware 4, protocol 5) *)
Theorem C17_arp_reject_iff : forall bs,
  let R := len bs < 8 \/ len bs < 8 + 2 * byte_at bs 4 + 2 * byte_at bs 5 in
  ((exists e, Arp.slice_view bs = ErrLen e) <-> R) /\
  ((exists v, Arp.slice_view bs = Ok v) <-> ~ R) /\
  (forall n, Arp.slice_view bs <> UB n).
Proof. exact arp_view_reject_iff. Qed.
Print Assumptions C17_arp_reject_iff.

Theorem C17_arp_reject_record : forall bs e, Arp.slice_view bs = ErrLen e ->
  (len bs < 8 /\ e = mkLenError 8 (len bs) LsSlice LArp 0) \/
  (8 <= len bs /\ len bs < 8 + 2 * byte_at bs 4 + 2 * byte_at bs 5 /\
   e = mkLenError (8 + 2 * byte_at bs 4 + 2 * byte_at bs 5) (len bs) LsArpAddrLengths LArp 0).
Proof. exact arp_view_reject_record. Qed.
Print Assumptions C17_arp_reject_record.

(* ArpPacket::from_slice(..)?.try_eth_ipv4(): LenError exactly as above; otherwise the first
   failing check in the order hardware type (1), protocol type (0x0800), hardware address size
   (6), protocol address size (4) with the offending value; a packet exactly when all four hold *)
Theorem C17_arp_eth_ipv4_outcomes : forall bs, bytes_ok bs ->
  let r := Arp.eth_ipv4_view bs in
  let hs := byte_at bs 4 in let ps := byte_at bs 5 in
  let R := len bs < 8 \/ len bs < 8 + 2 * byte_at bs 4 + 2 * byte_at bs 5 in
  ((exists e, r = ArpLenErr e) <-> R) /\
  (forall e, r = ArpFromErr e <->
     ~ R /\
     (   (u16_at bs 0 <> 1 /\ e = NonMatchingHwType (u16_at bs 0))
      \/ (u16_at bs 0 = 1 /\ u16_at bs 2 <> 2048 /\ e = NonMatchingProtocolType (u16_at bs 2))
      \/ (u16_at bs 0 = 1 /\ u16_at bs 2 = 2048 /\ hs <> 6 /\ e = NonMatchingHwAddrSize hs)
      \/ (u16_at bs 0 = 1 /\ u16_at bs 2 = 2048 /\ hs = 6 /\ ps <> 4 /\ e = NonMatchingProtoAddrSize ps))) /\
  ((exists p, r = ArpOk p) <->
     ~ R /\ u16_at bs 0 = 1 /\ u16_at bs 2 = 2048 /\ hs = 6 /\ ps = 4) /\
  (forall n, r <> ArpUB n).
Proof. exact arp_eth_ipv4_outcomes. Qed.
Print Assumptions C17_arp_eth_ipv4_outcomes.

(* non-vacuity: one input of every rejection class and an accepted neighbour of each *)
Example C17_ex_reject_classes :
  Icmpv4Slice.view [8; 0; 0; 0; 0; 1; 0] = ErrLen (mkLenError 8 7 LsSlice LIcmpv4 0) /\
  Icmpv4Slice.view [14; 0; 0; 0; 0; 1; 0; 2; 9] = ErrLen (mkLenError 20 9 LsSlice LIcmpv4TimestampReply 0) /\
  Icmpv4Slice.view [14; 1; 0; 0; 0; 1; 0; 2; 9] = Ok (V4Unknown 14 1 0 1 0 2, 8, [9]) /\
  Icmpv6Slice.view [128; 0; 0; 0; 0; 1; 0] = ErrLen (mkLenError 8 7 LsSlice LIcmpv6 0) /\
  Igmp.view [17; 100; 0; 0; 224; 0; 0; 1; 0; 0; 0] = ErrLen (mkLenError 12 11 LsSlice LIgmp 0) /\
  Igmp.view [22; 100; 0; 0; 224; 0; 0; 1; 0; 0; 0] = Ok (IgMembershipReportV2 224 0 0 1, 0, 8, [0; 0; 0]) /\
  Igmp.group_record_from_slice [1; 0; 0; 0; 224; 0; 0] = ErrLen (mkLenError 8 7 LsSlice LIgmp 0) /\
  Arp.slice_view [0; 1; 8; 0; 2; 1; 0; 1; 1; 2; 3; 4; 5] = ErrLen (mkLenError 14 13 LsArpAddrLengths LArp 0) /\
  (exists v, Arp.slice_view [0; 1; 8; 0; 2; 1; 0; 1; 1; 2; 3; 4; 5; 6] = Ok v) /\
  Arp.eth_ipv4_view [0; 6; 8; 0; 1; 1; 0; 1; 1; 2; 3; 4] = ArpFromErr (NonMatchingHwType 6) /\
  Arp.eth_ipv4_view [0; 1; 8; 6; 1; 1; 0; 1; 1; 2; 3; 4] = ArpFromErr (NonMatchingProtocolType 2054) /\
  Arp.eth_ipv4_view [0; 1; 8; 0; 1; 1; 0; 1; 1; 2; 3; 4] = ArpFromErr (NonMatchingHwAddrSize 1) /\
  Arp.eth_ipv4_view [0; 1; 8; 0; 6; 1; 0; 1; 1; 2; 3; 4; 5; 6; 7; 1; 2; 3; 4; 5; 6; 7]
    = ArpFromErr (NonMatchingProtoAddrSize 1).
Proof. vm_compute. repeat split. eexists. reflexivity. Qed.
