(* Props/C13.v -- property C13: TCP options encode and decode faithfully;
   iteration is bounded.  Each theorem is the named lemma of the
   proof files; the Examples are test vectors checked by evaluation.
   Vocabulary:
     Spec.v   opt, wire, wire_list, pad4, padding, err_true      (RFC 9293 / 7323 / 2018)
     Model.v  next, iterate, next_n, try_from_elements, try_from_slice, as_slice,
              elements_iterate, required_len  (transliterated Rust); to_opt, compact,
              canonical, element_ok; traces = list of (yielded item, rest() afterwards).
   All statements quantify over element lists / byte areas of ANY length. *)
From EP Require Parse.ConstsAllOk.   (* every numeric `pub const` of the crate, regenerated from the source on every run, has its RFC / IANA value *)
From EP Require Import Base.Bytes TcpOpt.Spec TcpOpt.Model TcpOpt.Proofs.
Local Open Scope N_scope.

(* every element list that fits: accepted, length rounded up to a multiple of 4,
   bytes = RFC encodings + END padding, iterating them yields the compacted
   elements in order and leaves exactly the END padding *)
Theorem C13_enc_dec : forall els, Forall element_ok els -> required_len els <= 40 ->
  exists o tr,
    try_from_elements els = Ret (Ok o)
    /\ options_len o = pad4 (required_len els)
    /\ data_offset o = 5 + pad4 (required_len els) / 4
    /\ required_len els = len (wire_list (map to_opt els))
    /\ as_slice o = Ret (wire_list (map to_opt els) ++ padding (required_len els))
    /\ elements_iterate o = Ret (tr, [])
    /\ map fst tr = map (fun e => Ok (compact e)) els
    /\ last_rest (wire_list (map to_opt els) ++ padding (required_len els)) tr
       = padding (required_len els).
Proof. exact c13_enc_dec. Qed.
Print Assumptions C13_enc_dec.

(* compact = drop the holes of a SACK element; identity on elements without holes *)
Theorem C13_compact :
  (forall e, canonical e -> compact e = e)
  /\ (forall e, canonical (compact e))
  /\ (forall e, to_opt (compact e) = to_opt e)
  /\ (forall e, element_ok e -> element_ok (compact e)).
Proof.
  repeat split.
  - apply compact_canonical.
  - apply compact_is_canonical.
  - apply compact_wire.
  - intros e. destruct e as [|v|v| |f [[a b] c]|ta tb]; try (intros H; exact H).
    destruct a, b, c; cbn; tauto.
Qed.
Print Assumptions C13_compact.

Theorem C13_reject : forall els, 40 < required_len els ->
  try_from_elements els = Ret (Err (NotEnoughSpace (required_len els))).
Proof. exact reject. Qed.
Print Assumptions C13_reject.

(* raw bytes as options (TcpHeader::set_options_raw): zero padded to a multiple of 4 *)
Theorem C13_from_slice : forall s,
  (len s <= 40 -> exists o, try_from_slice s = Ret (Ok o) /\ options_len o = pad4 (len s)
     /\ as_slice o = Ret (s ++ padding (len s)))
  /\ (40 < len s -> try_from_slice s = Ret (Err (NotEnoughSpace (len s)))).
Proof. intros s. split; [apply from_slice_ok | apply from_slice_reject]. Qed.
Print Assumptions C13_from_slice.

(* the unchecked reads (get_unchecked_be_u16/u32, from_raw_parts) and the index /
   range checks of next() never fail, for any bytes; the iteration ends within
   len+1 calls (Ret excludes OOB, Panic and OutOfFuel) *)
Theorem C13_in_bounds :
  (forall opts, exists it r, next opts = Ret (it, r))
  /\ (forall area, exists tr fin, iterate area = Ret (tr, fin)).
Proof.
  split; [exact next_total|].
  intros area. destruct (iterate_char area) as (tr & fin & E & _). eauto.
Qed.
Print Assumptions C13_in_bounds.

(* after any number of successfully yielded elements: area = their RFC
   encodings, concatenated, followed by rest() *)
Theorem C13_tiles : forall area tr fin, bytes_ok area -> iterate area = Ret (tr, fin) ->
  forall pre post, tr = pre ++ post -> all_ok pre ->
    area = wire_list (map to_opt (elems_of pre)) ++ last_rest area pre
    /\ Forall element_ok (elems_of pre) /\ Forall canonical (elems_of pre).
Proof. intros area tr fin Hok E. apply iterate_rel in E. eapply tiles_lemma; eassumption. Qed.
Print Assumptions C13_tiles.

(* an error is the last item, empties the iterator, and describes the bytes at
   the position where the preceding elements ended *)
Theorem C13_error_truth : forall area tr fin, iterate area = Ret (tr, fin) ->
  forall pre e r post, tr = pre ++ (Err e, r) :: post ->
    all_ok pre /\ post = [] /\ r = [] /\ last_rest area pre <> []
    /\ err_true (last_rest area pre) e.
Proof. intros area tr fin E. apply iterate_rel in E. eapply error_lemma; eassumption. Qed.
Print Assumptions C13_error_truth.

Theorem C13_bounded : forall area, exists tr fin, iterate area = Ret (tr, fin)
  /\ (length tr <= length area)%nat
  /\ (forall pre e r post, tr = pre ++ (Ok e, r) :: post -> len r < len (last_rest area pre)).
Proof. exact c13_bounded. Qed.
Print Assumptions C13_bounded.

(* after END / an error / the end of the area: rest() is empty, every further
   next() is None; and the iteration stops for no other reason *)
Theorem C13_exhausted :
  (forall opts it o', next opts = Ret (it, o') ->
     (it = None \/ exists e, it = Some (Err e)) ->
     o' = [] /\ forall n, next_n n o' = Ret (repeat None n, []))
  /\ (forall area tr fin, iterate area = Ret (tr, fin) ->
     fin = [] /\ (forall n, next_n n fin = Ret (repeat None n, []))
     /\ (last_rest area tr = [] \/ exists r, last_rest area tr = 0 :: r)).
Proof. exact c13_exhausted. Qed.
Print Assumptions C13_exhausted.

(* the table-driven reference decoder of Spec.v (run as oracle against the
   crate on every case) answers like the model: per call and for whole areas *)
Theorem C13_reference_decoder :
  (forall bs, bytes_ok bs -> agrees (next bs) (spec_next bs))
  /\ (forall area tr fin, bytes_ok area -> iterate area = Ret (tr, fin) ->
      spec_decode (S (length area)) area = sitems_of tr).
Proof.
  split; [exact next_agrees|].
  intros area tr fin Hok E. apply iterate_rel in E.
  eapply spec_decode_trace; [eassumption | assumption | lia].
Qed.
Print Assumptions C13_reference_decoder.

(* ---- non-vacuity ---------------------------------------------------------- *)
Definition ex_els : list element :=
  [ MaximumSegmentSize 1460; SelectiveAcknowledgementPermitted; Timestamp 4294967295 7;
    Noop; WindowScale 7;
    SelectiveAcknowledgement (1, 2) (None, Some (3, 4), None) ].
(* 4+2+10+1+3+18 = 38 bytes, padded to 40; the SACK hole is compacted *)
Example C13_ex_enc_hyp : Forall element_ok ex_els /\ required_len ex_els = 38.
Proof.
  split; [|reflexivity].
  repeat constructor; cbn; unfold block_ok, u32_ok, u16_ok, u8_ok; cbn; try lia; repeat split; lia.
Qed.
Example C13_ex_enc :
  (exists o, try_from_elements ex_els = Ret (Ok o) /\ options_len o = 40 /\ data_offset o = 15
     /\ elements_iterate o =
        Ret ([ (Ok (MaximumSegmentSize 1460), drop 4 (o_buf o));
               (Ok SelectiveAcknowledgementPermitted, drop 6 (o_buf o));
               (Ok (Timestamp 4294967295 7), drop 16 (o_buf o));
               (Ok Noop, drop 17 (o_buf o));
               (Ok (WindowScale 7), drop 20 (o_buf o));
               (Ok (SelectiveAcknowledgement (1, 2) (Some (3, 4), None, None)), [0; 0]) ], [])).
Proof. eexists. split; [vm_compute; reflexivity|]. vm_compute. repeat split. Qed.
Example C13_ex_reject :
  try_from_elements [Timestamp 1 2; Timestamp 3 4; Timestamp 5 6; Timestamp 7 8; Noop]
  = Ret (Err (NotEnoughSpace 41)).
Proof. vm_compute. reflexivity. Qed.
(* a raw area: NOP, MSS, then a timestamp option cut short *)
Example C13_ex_raw :
  iterate [1; 2; 4; 5; 180; 8; 10; 0; 0] =
  Ret ([ (Ok Noop, [2; 4; 5; 180; 8; 10; 0; 0]);
         (Ok (MaximumSegmentSize 1460), [8; 10; 0; 0]);
         (Err (UnexpectedEndOfSlice 8 10 4), []) ], []).
Proof. vm_compute. reflexivity. Qed.
Example C13_ex_err_true : err_true [8; 10; 0; 0] (UnexpectedEndOfSlice 8 10 4)
  /\ err_true [5; 11; 0] (UnexpectedSize 5 11) /\ err_true [9; 1] (UnknownId 9).
Proof.
  split; [|split].
  - apply (ET_short [8; 10; 0; 0] 8 10 [10]); [reflexivity|reflexivity|cbn; lia|now left].
  - apply (ET_size [5; 11; 0] 5 11 [10; 18; 26; 34]); reflexivity.
  - apply ET_unknown; [reflexivity|lia|lia|reflexivity].
Qed.
Example C13_ex_end : iterate [1; 0; 2; 4] = Ret ([(Ok Noop, [0; 2; 4])], []).
Proof. vm_compute. reflexivity. Qed.
Example C13_ex_reference :
  spec_decode 10 [1; 2; 4; 5; 180; 8; 10; 0; 0] =
  [SOk ONop [2; 4; 5; 180; 8; 10; 0; 0]; SOk (OMss 1460) [8; 10; 0; 0];
   SErr (UnexpectedEndOfSlice 8 10 4)].
Proof. vm_compute. reflexivity. Qed.

(* ========================================================================== *)
(* Header level (TcpOpt/Header.v on top of the C08 model Roundtrip/Tcp.v):
   TcpHeader::set_options / set_options_raw / options_iterator / header_len /
   data_offset / to_bytes / from_slice / read, TcpHeaderSlice::from_slice /
   options / options_iterator, TcpSlice::from_slice / options / options_iterator /
   payload.  [h] is ANY header value: its previous option buffer may be longer
   and hold arbitrary (stale) bytes. *)
From EP Require Import TcpOpt.Header TcpOpt.HeaderProofs.
From EP Require Roundtrip.Common Roundtrip.Tcp.

(* set_options: Ok <-> the elements need <= 40 bytes; then data offset = 5 + padded/4,
   header_len = 20 + padded, to_bytes = the 20 fixed bytes (data offset nibble and NS
   bit in byte 12) followed by exactly the RFC encodings + END padding; otherwise
   NotEnoughSpace(required) and the header is unchanged *)
Theorem C13_header_set_options : forall h els,
  (required_len els <= 40 ->
     exists h' bs,
       set_options h els = Ret (Ok tt, h')
       /\ same_fixed_fields h h'
       /\ hdr_data_offset h' = 5 + pad4 (required_len els) / 4
       /\ hdr_header_len h' = 20 + pad4 (required_len els)
       /\ Tcp.to_bytes h' = Some bs
       /\ len bs = hdr_header_len h'
       /\ take 20 bs = Tcp.fixed_bytes h'
       /\ rd bs 12 = Some (16 * hdr_data_offset h' + (if Tcp.ns h then 1 else 0))
       /\ options_area_of bs = wire_list (map to_opt els) ++ padding (required_len els))
  /\ (40 < required_len els ->
       set_options h els = Ret (Err (NotEnoughSpace (required_len els)), h))
  /\ (forall r h', set_options h els = Ret (r, h') -> (r = Ok tt <-> required_len els <= 40)).
Proof. exact c13_header_set_options. Qed.
Print Assumptions C13_header_set_options.

(* set_options_raw: Ok <-> <= 40 bytes; the area on the wire and seen by every view
   is the data + zero padding to a multiple of four; otherwise unchanged *)
Theorem C13_header_set_options_raw : forall h data,
  (len data <= 40 ->
     exists h' bs,
       set_options_raw h data = Ret (Ok tt, h')
       /\ same_fixed_fields h h'
       /\ hdr_data_offset h' = 5 + pad4 (len data) / 4
       /\ hdr_header_len h' = 20 + pad4 (len data)
       /\ Tcp.to_bytes h' = Some bs
       /\ len bs = hdr_header_len h'
       /\ take 20 bs = Tcp.fixed_bytes h'
       /\ options_area_of bs = data ++ padding (len data)
       /\ hdr_options_area h' = Ret (data ++ padding (len data))
       /\ (forall payload,
             Tcp.slice_from_slice (bs ++ payload) = Common.Ok bs
             /\ hs_options bs = Ret (data ++ padding (len data))
             /\ ts_from_slice (bs ++ payload) = Common.Ok (hdr_header_len h', bs ++ payload)
             /\ ts_options (hdr_header_len h', bs ++ payload) = Ret (data ++ padding (len data))
             /\ (Tcp.wf_tcp h = true -> bytes_ok data ->
                 Tcp.from_slice (bs ++ payload) = Common.Ok (h', payload))))
  /\ (40 < len data ->
       set_options_raw h data = Ret (Err (NotEnoughSpace (len data)), h)).
Proof. exact c13_header_set_options_raw. Qed.
Print Assumptions C13_header_set_options_raw.

(* the element list survives the WIRE: set_options on any header (field values in
   the range of their Rust types), to_bytes, any payload behind; TcpHeaderSlice,
   TcpSlice and TcpHeader::from_slice / read see the header again and all three
   option iterators yield exactly the compacted elements and leave exactly the END
   padding (C13_enc_dec composed with C08's tcp_dec_enc) *)
Theorem C13_header_wire_roundtrip : forall h els payload,
  Tcp.wf_tcp h = true -> Forall element_ok els -> required_len els <= 40 ->
  exists h' bs tr,
    set_options h els = Ret (Ok tt, h')
    /\ Tcp.to_bytes h' = Some bs
    /\ Tcp.slice_from_slice (bs ++ payload) = Common.Ok bs
    /\ hs_options bs = Ret (wire_list (map to_opt els) ++ padding (required_len els))
    /\ hs_options_iterate bs = Ret (tr, [])
    /\ ts_from_slice (bs ++ payload) = Common.Ok (hdr_header_len h', bs ++ payload)
    /\ ts_payload (hdr_header_len h', bs ++ payload) = Ret payload
    /\ ts_options_iterate (hdr_header_len h', bs ++ payload) = Ret (tr, [])
    /\ Tcp.from_slice (bs ++ payload) = Common.Ok (h', payload)
    /\ Tcp.read (bs ++ payload) = Common.Ok (h', payload)
    /\ hdr_options_iterate h' = Ret (tr, [])
    /\ map fst tr = map (fun e => Ok (compact e)) els
    /\ last_rest (wire_list (map to_opt els) ++ padding (required_len els)) tr
       = padding (required_len els).
Proof. exact c13_header_wire_roundtrip. Qed.
Print Assumptions C13_header_wire_roundtrip.

(* any byte string: TcpHeaderSlice::from_slice, TcpSlice::from_slice and
   TcpHeader::from_slice fail alike or succeed alike, and then options() of both
   slices and the decoded header's options are the same window
   [20, header length) of the input and the three iterators yield the same items
   (none of the unchecked reads / slice indexings of the three paths faults) *)
Theorem C13_header_iterators_agree : forall s, bytes_ok s ->
  (forall e, Tcp.slice_from_slice s = Common.Err e ->
     ts_from_slice s = Common.Err e /\ Tcp.from_slice s = Common.Err e)
  /\ (forall hs, Tcp.slice_from_slice s = Common.Ok hs ->
       exists h area tr,
         Tcp.from_slice s = Common.Ok (h, drop (len hs) s)
         /\ ts_from_slice s = Common.Ok (len hs, s)
         /\ ts_header_slice (len hs, s) = Ret hs
         /\ ts_payload (len hs, s) = Ret (drop (len hs) s)
         /\ area = take (len hs - 20) (drop 20 s)
         /\ hs_options hs = Ret area
         /\ ts_options (len hs, s) = Ret area
         /\ hdr_options_area h = Ret area
         /\ iterate area = Ret (tr, [])
         /\ hs_options_iterate hs = Ret (tr, [])
         /\ ts_options_iterate (len hs, s) = Ret (tr, [])
         /\ hdr_options_iterate h = Ret (tr, [])).
Proof.
  intros s OK. split; [intros e; apply views_agree_err|].
  intros hs H. destruct (views_agree s hs OK H) as (h & V). cbv zeta in V.
  destruct V as (V1 & V2 & Vh & Vp & V3 & V4 & V5 & V6 & V7 & V8).
  destruct (iterate_char (take (len hs - 20) (drop 20 s))) as (tr & fin & IT & TR).
  pose proof (fin_lemma _ _ _ TR) as F. subst fin.
  exists h, (take (len hs - 20) (drop 20 s)), tr.
  rewrite V6, V7, V8. repeat split; assumption.
Qed.
Print Assumptions C13_header_iterators_agree.

(* the two transliterations of struct TcpOptions (TcpOpt/Model.v, Roundtrip/Tcp.v)
   coincide through the adapter to_c08 / of_c08 *)
Theorem C13_header_adapter :
  (forall o, of_c08 (to_c08 o) = o) /\ (forall o, to_c08 (of_c08 o) = o)
  /\ (forall o, as_slice o = match Tcp.opt_as_slice (to_c08 o) with Some s => Ret s | None => OOB end)
  /\ (forall o, Tcp.opt_data_offset (to_c08 o) = data_offset o)
  /\ (forall h, Tcp.header_len h = hdr_header_len h)
  /\ (forall h, Tcp.data_offset h = hdr_data_offset h)
  /\ (forall s, try_from_slice s = match Tcp.opt_try_from_slice s with
                                   | Some o => Ret (Ok (of_c08 o))
                                   | None => Ret (Err (NotEnoughSpace (len s)))
                                   end).
Proof.
  split; [exact of_to_c08|]. split; [exact to_of_c08|]. split; [exact as_slice_adapter|].
  split; [exact data_offset_adapter|]. split; [exact header_len_adapter|].
  split; [exact hdr_data_offset_adapter|]. exact try_from_slice_adapter.
Qed.
Print Assumptions C13_header_adapter.

(* ---- non-vacuity ---------------------------------------------------------- *)
(* a header whose option buffer is completely filled with 40 stale bytes 0xff *)
Definition ex_hdr : Tcp.TcpHeader :=
  {| Tcp.source_port := 1234; Tcp.destination_port := 80;
     Tcp.sequence_number := 287454020; Tcp.acknowledgment_number := 4294967295;
     Tcp.ns := true; Tcp.fin := false; Tcp.syn := true; Tcp.rst := false; Tcp.psh := false;
     Tcp.ack := true; Tcp.urg := false; Tcp.ece := false; Tcp.cwr := true;
     Tcp.window_size := 4321; Tcp.checksum := 65535; Tcp.urgent_pointer := 0;
     Tcp.options := {| Tcp.o_len := 40; Tcp.o_buf := repeat 255 40 |} |}.
Example C13_ex_hdr_wf : Tcp.wf_tcp ex_hdr = true /\ Tcp.header_len ex_hdr = 60.
Proof. split; reflexivity. Qed.
(* shrinking 40 -> 8 option bytes: nothing of the old area shows up *)
Example C13_ex_hdr_shrink :
  exists h', set_options ex_hdr [MaximumSegmentSize 1460; WindowScale 7] = Ret (Ok tt, h')
    /\ hdr_header_len h' = 28 /\ hdr_data_offset h' = 7
    /\ Tcp.to_bytes h' = Some [4; 210; 0; 80; 17; 34; 51; 68; 255; 255; 255; 255; 113; 146;
                               16; 225; 255; 255; 0; 0;   2; 4; 5; 180; 3; 3; 7; 0]
    /\ hs_options_iterate [4; 210; 0; 80; 17; 34; 51; 68; 255; 255; 255; 255; 113; 146;
                           16; 225; 255; 255; 0; 0;   2; 4; 5; 180; 3; 3; 7; 0]
       = Ret ([(Ok (MaximumSegmentSize 1460), [3; 3; 7; 0]); (Ok (WindowScale 7), [0])], []).
Proof. eexists. split; [vm_compute; reflexivity|]. vm_compute. repeat split. Qed.
Example C13_ex_hdr_reject :
  set_options ex_hdr [Timestamp 1 2; Timestamp 3 4; Timestamp 5 6; Timestamp 7 8; Noop]
  = Ret (Err (NotEnoughSpace 41), ex_hdr)
  /\ set_options_raw ex_hdr (repeat 1 41) = Ret (Err (NotEnoughSpace 41), ex_hdr).
Proof. vm_compute. repeat split. Qed.
(* data offset 15, a timestamp, an unknown option; 3 payload bytes behind *)
Definition ex_wire : bytes :=
  [0; 1; 0; 2; 0; 0; 0; 3; 0; 0; 0; 4; 240; 2; 0; 5; 0; 6; 0; 7]
  ++ [8; 10; 0; 0; 0; 1; 0; 0; 0; 2; 1; 1; 9; 4; 0; 0] ++ repeat 0 24 ++ [170; 187; 204].
Example C13_ex_views :
  bytes_ok ex_wire
  /\ Tcp.slice_from_slice ex_wire = Common.Ok (take 60 ex_wire)
  /\ ts_from_slice ex_wire = Common.Ok (60, ex_wire)
  /\ ts_payload (60, ex_wire) = Ret [170; 187; 204]
  /\ ts_options_iterate (60, ex_wire) = hs_options_iterate (take 60 ex_wire)
  /\ hs_options_iterate (take 60 ex_wire)
     = Ret ([(Ok (Timestamp 1 2), drop 30 (take 60 ex_wire));
             (Ok Noop, drop 31 (take 60 ex_wire)); (Ok Noop, drop 32 (take 60 ex_wire));
             (Err (UnknownId 9), [])], []).
Proof.
  split; [apply bytes_okb_spec; reflexivity|].
  vm_compute. repeat split; reflexivity.
Qed.


(* the property text read literally ("yields the same elements"): for an element list that fits,
   iterating its encoding yields exactly the SAME elements iff no SACK element has a hole (an
   absent optional block before a present one); for every accepted value o and every trace *)
Theorem C13_same_elements_iff_canonical : forall els o tr fin,
  Forall element_ok els -> required_len els <= 40 ->
  try_from_elements els = Ret (Ok o) -> elements_iterate o = Ret (tr, fin) ->
  fin = [] /\ (map fst tr = map Ok els <-> Forall canonical els).
Proof. exact same_elements_iff_canonical. Qed.
Print Assumptions C13_same_elements_iff_canonical.

(* ... and the literal reading is REFUTED for a SACK element with a hole: the element list below is
   in range, fits, is accepted, and is read back as a different list (the hole is compacted away:
   the wire format, RFC 2018, has no way to express an absent block before a present one).
   Documented behaviour of the crate (the real crate gives the same answer: case line
   `els S:1-2,-,3-4,-` -> 20 bytes, read back as `S:1-2,3-4,-,-`; the differential run has all
   eight Some/None masks on every run), not a defect of the decoder; a deviation from the
   property's wording. *)
Theorem C13_sack_hole_refuted :
  exists els o tr, Forall element_ok els /\ required_len els <= 40 /\
    try_from_elements els = Ret (Ok o) /\ elements_iterate o = Ret (tr, []) /\
    map fst tr <> map Ok els /\
    els = [SelectiveAcknowledgement (1, 2) (None, Some (3, 4), None)] /\
    map fst tr = [Ok (SelectiveAcknowledgement (1, 2) (Some (3, 4), None, None))].
Proof. exact sack_hole_refuted. Qed.
Print Assumptions C13_sack_hole_refuted.

(* acceptance in RFC vocabulary, for EVERY element list (no range hypothesis): the required size
   the code computes is the length of the RFC encodings; the list is accepted exactly when that
   length is at most 40 (with the value below: encodings, zero filled, length rounded up to a
   multiple of 4) and rejected with exactly that length otherwise *)
Theorem C13_accept_iff : forall els,
  let n := len (wire_list (map to_opt els)) in
  required_len els = n /\
  (n <= 40 -> try_from_elements els =
     Ret (Ok {| o_len := pad4 n; o_buf := wire_list (map to_opt els) ++ zeros (40 - n) |})) /\
  (40 < n -> try_from_elements els = Ret (Err (NotEnoughSpace n))) /\
  ((exists o, try_from_elements els = Ret (Ok o)) <-> n <= 40) /\
  (forall r, try_from_elements els = Ret (Err (NotEnoughSpace r)) <-> 40 < n /\ r = n).
Proof. exact accept_iff. Qed.
Print Assumptions C13_accept_iff.

(* non-vacuity: a list with a hole-free SACK element is read back unchanged; hypotheses of the
   iff theorem on it; a rejected list with its RFC length (4 timestamps + NOP = 41) *)
Example C13_ex_same_elements :
  let els := [MaximumSegmentSize 1460; SelectiveAcknowledgement (1, 2) (Some (3, 4), None, None)] in
  Forall element_ok els /\ required_len els = 22 /\ Forall canonical els /\
  (exists o tr, try_from_elements els = Ret (Ok o) /\ elements_iterate o = Ret (tr, []) /\
     map fst tr = map Ok els).
Proof.
  cbv zeta. split; [|split; [reflexivity|split]].
  - repeat constructor; cbn; unfold block_ok, u32_ok, u16_ok; cbn; lia.
  - repeat constructor.
  - eexists. eexists. split; [vm_compute; reflexivity|]. vm_compute. repeat split.
Qed.
Example C13_ex_accept_iff :
  len (wire_list (map to_opt [Timestamp 1 2; Timestamp 3 4; Timestamp 5 6; Timestamp 7 8; Noop])) = 41
  /\ len (wire_list (map to_opt ex_els)) = 38.
Proof. vm_compute. repeat split. Qed.
