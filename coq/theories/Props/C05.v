(* Props/C05.v -- property C05: lax parsing extends strict parsing and flags
   truncation honestly.  Each theorem is the named lemma of the
   proof files; the Examples are test vectors checked by evaluation.

   Models : Parse/LaxSlices.v + Parse/LaxCursor.v (transliteration of the lax slicers and of
            LaxSlicedPacketCursor) and the strict models Parse/Slices.v + Parse/Cursor.v.
   Views  : Parse/LaxView.v (`lview`: windows, ip numbers, incomplete flags, length sources,
            stop error; `strictify` forgets the lax-only fields; `all_complete`).
   All theorems hold for every byte string / every slice value, no length bound.

   Known finding F10 (class F10_lax_ignores_ether_type_version): the lax whole-packet cursor
   dispatches on the IP version nibble and ignores whether the ether type said IPv4 or IPv6.
   (a), (c), (d) hold without exclusion (a strictly accepted packet has the matching nibble);
   the whole-packet form of (b) is refuted inside the class, see C05_F10_refuted.

   Whole-packet theorems: the lax model refines a lax reference decoder over absolute
   positions (Parse/LaxWire.v); corollaries: the lax model never returns Bug, whole-packet
   (d) (C05_incomplete_iff_packet) and whole-packet (b) (C05_lax_prefix; for faults inside the
   network layer -- authentication header, IPv6 extension chain, IP length fallbacks --
   C05_lax_prefix_net: network layer decoded in front of the fault, exact layer tag). *)
From EP Require Import Base.Bytes Parse.Types Parse.Slices Parse.Cursor Parse.View Parse.WireSpec
  Parse.LaxSlices Parse.LaxCursor Parse.LaxView Parse.LaxProofs Parse.LaxFacts.

(* ---- (a) strict accepts -> lax returns the same layers / windows / payload, no stop
   error, nothing incomplete: the three lax whole-packet entry points -------------------- *)
Theorem C05_lax_extends_strict : forall bs et,
  extends (SlicedPacket.from_ethernet bs) (LaxSlicedPacket.from_ethernet bs) /\
  extends (SlicedPacket.from_ether_type et bs) (LaxSlicedPacket.from_ether_type et bs) /\
  extends (SlicedPacket.from_ip bs) (LaxSlicedPacket.from_ip bs).
Proof. exact lax_extends_strict. Qed.
Print Assumptions C05_lax_extends_strict.

(* pin the meaning of `extends` *)
Check (eq_refl : extends =
  fun strict lax => forall r, strict = Ok r ->
    exists r', lax = Ok r' /\ strictify (lview r') = view r /\ lsp_stop_err r' = None /\
               all_complete (lview r') = true).

(* (a) for LaxIpSlice, LaxIpv4Slice, LaxIpv6Slice, LaxMacsecSlice, UdpSlice::from_slice_lax,
   Ipv6ExtensionsSlice::from_slice_lax, Ipv4ExtensionsSlice::from_slice_lax: the lax result is
   the strict result embedded (incomplete = false) and the stop error is None *)
Theorem C05_lax_extends_strict_single : forall s nh,
  (forall i, IpSlice.from_slice s = Ok i -> LaxIpSlice.from_slice s = Ok (lax_of_ip i, None)) /\
  (forall v, Ipv4Slice.from_slice s = Ok v -> LaxIpv4Slice.from_slice s = Ok (lax_of_v4 v, None)) /\
  (forall v, Ipv6Slice.from_slice s = Ok v -> LaxIpv6Slice.from_slice s = Ok (lax_of_v6 v, None)) /\
  (forall m, Macsec.from_slice s = Ok m -> LaxMacsecSlice.from_slice s = Ok (lax_of_macsec m)) /\
  (forall u, UdpSlice.from_slice s = Ok u -> UdpSlice.from_slice_lax s = Ok u) /\
  (forall w, Ipv6ExtensionsSlice.from_slice nh s = Ok w -> LaxIpv6Exts.from_slice_lax nh s = Ok (w, None)) /\
  (forall w, Ipv4Exts.from_slice nh s = Ok w -> LaxIpv4Exts.from_slice_lax nh s = Ok (w, None)).
Proof. exact lax_extends_strict_single. Qed.
Print Assumptions C05_lax_extends_strict_single.

(* ---- (c) lax returns Err exactly when the very first header is undecodable ------------ *)
Theorem C05_err_only_first : forall bs et e,
  (LaxSlicedPacket.from_ethernet bs = Err e <->
     (len bs < 14 /\ e = ELen (mkLenError 14 (len bs) LsSlice LyEthernet2Header 0))) /\
  LaxSlicedPacket.from_ether_type et bs <> Err e /\
  (LaxSlicedPacket.from_ip bs = Err e <-> ip_header_fault bs = Some e) /\
  (LaxIpSlice.from_slice (mk_slice bs) = Err e <-> ip_header_fault bs = Some e).
Proof.
  exact (fun bs et e => conj (lax_from_ethernet_err_iff bs e)
           (conj (lax_from_ether_type_never_err et bs e)
              (conj (lax_from_ip_err_iff bs e) (lax_ip_slice_err_iff bs e)))).
Qed.
Print Assumptions C05_err_only_first.

(* single-layer slicers: Err exactly when the (strict) header slicer of that layer fails;
   the two extension collectors never fail *)
Theorem C05_err_only_first_single : forall s nh e,
  (LaxIpv4Slice.from_slice s = Err e <-> Ipv4HeaderSlice.from_slice s = Err e) /\
  (LaxIpv6Slice.from_slice s = Err e <-> Ipv6HeaderSlice.from_slice s = Err e) /\
  (LaxMacsecSlice.from_slice s = Err e <-> Macsec.header_from_slice s = Err e) /\
  (UdpSlice.from_slice_lax s = Err e <-> UdpSlice.header_from_slice s = Err e) /\
  (LaxIpv6Exts.from_slice_lax nh s = Err e -> False) /\
  LaxIpv4Exts.from_slice_lax nh s <> Err e.
Proof.
  exact (fun s nh e => conj (lax_ipv4_err_iff s e) (conj (lax_ipv6_err_iff s e)
           (conj (lax_macsec_err_iff s e) (conj (lax_udp_err_iff s e)
              (conj (lax_exts_not_err nh s e) (lax_ipv4_exts_never_err nh s e)))))).
Qed.
Print Assumptions C05_err_only_first_single.

(* ---- (d) incomplete <-> the length field promised more than the slice holds; then the
   payload ends at the slice end and the slice is the length source ------------------------ *)
Theorem C05_incomplete_iff : forall s,
  (forall v st, LaxIpv4Slice.from_slice s = Ok (v, st) ->
     exists h tlen,
       Ipv4HeaderSlice.from_slice s = Ok h /\ Ipv4HeaderSlice.total_len h = Ok tlen /\
       lipp_incomplete (lv4_payload v) = (s_len s <? tlen) /\
       (lipp_incomplete (lv4_payload v) = true ->
        lipp_src (lv4_payload v) = LsSlice /\ s_end (lipp_slice (lv4_payload v)) = s_end s)) /\
  (forall v st, LaxIpv6Slice.from_slice s = Ok (v, st) ->
     exists h pl,
       Ipv6HeaderSlice.from_slice s = Ok h /\ Ipv6HeaderSlice.payload_length h = Ok pl /\
       lipp_incomplete (lv6_payload v) = (s_len s <? 40 + pl) /\
       (lipp_incomplete (lv6_payload v) = true ->
        lipp_src (lv6_payload v) = LsSlice /\ s_end (lipp_slice (lv6_payload v)) = s_end s)) /\
  (forall m, LaxMacsecSlice.from_slice s = Ok m ->
     exists h epl,
       Macsec.header_from_slice s = Ok h /\ Macsec.expected_payload_len h = Ok epl /\
       lms_incomplete m =
         (match epl with Some req => s_len s <? s_len h + req | None => false end) /\
       (lms_incomplete m = true -> lms_src_ok m /\ s_end (lms_pslice m) = s_end s)).
Proof.
  exact (fun s => conj (lax_ipv4_incomplete s) (conj (lax_ipv6_incomplete s) (lax_macsec_incomplete s))).
Qed.
Print Assumptions C05_incomplete_iff.

(* (b), per layer: the single-layer lax decoders against their strict counterparts
   (IPv4 incl. authentication header, IPv6 incl. the extension chain, both extension collectors,
   UDP, and the transport step of the cursor).  The statements carry `Bug _ => True` on the lax
   side; that the lax decoders never return Bug is C05_lax_never_bug / C05_lax_never_bug_single
   below.  The `_partial` in the names means "per decoder": the whole-packet statement (link-extension
   loop, ARP, IP dispatch, the layers in front of the fault against the instrumented strict
   reference decoder) is C05_lax_prefix, and for faults inside the network layer (IP header,
   extension headers in front of the fault, payload descriptor, exact layer tag)
   C05_lax_prefix_net. *)
Theorem C05_lax_prefix_partial : forall s nh,
  (forall e, Ipv4Slice.from_slice s = Err e ->
     match LaxIpv4Slice.from_slice s with
     | Ok (_, st) => v4_len_fallback e \/ (st = Some e /\ auth_fault e)
     | Err e' => e' = e /\ Ipv4HeaderSlice.from_slice s = Err e
     | Bug _ => True
     end) /\
  (forall e, Ipv6Slice.from_slice s = Err e ->
     match LaxIpv6Slice.from_slice s with
     | Ok (_, st) => v6_len_fallback e \/ stop_is st e
     | Err e' => e' = e /\ Ipv6HeaderSlice.from_slice s = Err e
     | Bug _ => True
     end) /\
  (forall e, Ipv6ExtensionsSlice.from_slice nh s = Err e ->
     match LaxIpv6Exts.from_slice_lax nh s with
     | Ok (_, st) => stop_is st e
     | Err _ => False
     | Bug _ => True
     end) /\
  (forall e, Ipv4Exts.from_slice nh s = Err e ->
     LaxIpv4Exts.from_slice_lax nh s = Ok (None, nh, s, Some e)) /\
  (forall e, UdpSlice.from_slice s = Err e ->
     exists l, e = ELen l /\
     ((UdpSlice.header_from_slice s = Err e /\ UdpSlice.from_slice_lax s = Err e) \/
      (udp_fallback l /\ UdpSlice.from_slice_lax s = Ok s))).
Proof. exact lax_records_fault_single. Qed.
Print Assumptions C05_lax_prefix_partial.

Theorem C05_lax_prefix_transport_partial : forall c lc p,
  lc_offset lc = c_offset c -> c_src c = ipp_src p -> lsp_stop_err (lc_result lc) = None ->
  lc_result lc = lax_of_packet (c_result c) ->
  forall e, SlicedPacketCursor.transport_dispatch c p = Err e ->
  exists r', LaxSlicedPacketCursor.slice_transport lc (lax_of_ipp p) = Ok r' /\
             ((exists l, e = ELen l /\ udp_fallback l) \/ recorded (lc_result lc) r' e).
Proof. exact lax_records_fault_transport. Qed.
Print Assumptions C05_lax_prefix_transport_partial.

(* ---- known finding F10: witness --------------------------------------------------------- *)
(* ether type 0x0800 in front of a complete IPv6/UDP packet (48 bytes) *)
Definition f10_pkt : bytes :=
  [96;0;0;0; 0;8; 17;64] ++ repeat 0 32 ++ [0;1;0;2;0;8;0;0].

(* the class: the strict verdict is "IPv4 header, unexpected version 6" (or the mirror case) *)
Definition KnownClass_F10 (strict : res sliced_packet) : bool :=
  match strict with
  | Err (EContent (CeIpv4Version 6)) | Err (EContent (CeIpv6Version 4)) => true
  | _ => false
  end.

Theorem C05_F10_refuted :
  exists bs et,
    KnownClass_F10 (SlicedPacket.from_ether_type et bs) = true /\
    SlicedPacket.from_ether_type et bs = Err (EContent (CeIpv4Version 6)) /\
    exists r', LaxSlicedPacket.from_ether_type et bs = Ok r' /\ lsp_stop_err r' = None /\
               lv_net (lview r') =
                 Some (LVIpv6 (0, 40) None false (40, 0) (mkLVIp false 17 false LsIpv6HeaderPayloadLen (40, 8))).
Proof.
  exists f10_pkt, 2048. split; [vm_compute; reflexivity|]. split; [vm_compute; reflexivity|].
  eexists. split; [vm_compute; reflexivity|]. split; reflexivity.
Qed.
Print Assumptions C05_F10_refuted.

(* ---- non-vacuity ------------------------------------------------------------------------ *)
(* Ethernet / VLAN / IPv4 / UDP: accepted by strict; lax gives the same view *)
Definition ex_pkt : bytes :=
  [1;2;3;4;5;6; 7;8;9;10;11;12; 129;0;  0;5; 8;0;
   69;0;0;32; 0;0;0;0; 64;17;0;0; 1;2;3;4; 5;6;7;8;
   0;1;0;2;0;12;0;0; 170;187;204;221].
Example C05_ex_extends :
  exists r r', SlicedPacket.from_ethernet ex_pkt = Ok r /\
               LaxSlicedPacket.from_ethernet ex_pkt = Ok r' /\
               strictify (lview r') = view r /\ v_transport (view r) = Some (VUdp (38, 12)).
Proof.
  eexists _, _. split; [vm_compute; reflexivity|]. split; [vm_compute; reflexivity|].
  vm_compute. repeat split.
Qed.

(* the same packet cut inside the UDP header: IPv4 total length 32 > 23 bytes present ->
   incomplete, slice as length source, payload ends at the slice end, stop error UdpHeader *)
Example C05_ex_cut :
  exists r', LaxSlicedPacket.from_ethernet (firstn 41 ex_pkt) = Ok r' /\
    lv_net (lview r') = Some (LVIpv4 (18, 20) None (mkLVIp true 17 false LsSlice (38, 3))) /\
    lsp_stop_err r' = Some (ELen (mkLenError 8 3 LsSlice LyUdpHeader 38), LyUdpHeader) /\
    SlicedPacket.from_ethernet (firstn 41 ex_pkt) = Err (ELen (mkLenError 32 23 LsSlice LyIpv4Packet 18)).
Proof. eexists. split; [vm_compute; reflexivity|]. vm_compute. repeat split. Qed.

(* first header undecodable: 5 bytes of an Ethernet frame; IP version nibble 7 *)
Example C05_ex_err :
  LaxSlicedPacket.from_ethernet [1;2;3;4;5] = Err (ELen (mkLenError 14 5 LsSlice LyEthernet2Header 0)) /\
  ip_header_fault [112; 0] = Some (EContent (CeIpUnsupportedVersion 7)) /\
  LaxSlicedPacket.from_ip [112; 0] = Err (EContent (CeIpUnsupportedVersion 7)).
Proof. vm_compute. repeat split. Qed.

(* (d): IPv4 header announcing 40 bytes in a 28 byte slice *)
Example C05_ex_incomplete :
  exists v st, LaxIpv4Slice.from_slice (mk_slice (firstn 28 (skipn 18 ex_pkt) )) = Ok (v, st) /\
    lipp_incomplete (lv4_payload v) = true /\ lipp_src (lv4_payload v) = LsSlice /\
    s_end (lipp_slice (lv4_payload v)) = 28.
Proof. eexists _, _. split; [vm_compute; reflexivity|]. vm_compute. repeat split. Qed.

(* (b) partial: IPv6 with a destination options header cut short -> recorded as stop error *)
Example C05_ex_ext_fault :
  exists e, Ipv6ExtensionsSlice.from_slice 60 (mk_slice [17;1;0;0]) = Err e /\
    exists w, LaxIpv6Exts.from_slice_lax 60 (mk_slice [17;1;0;0]) = Ok (w, Some (e, LyIpv6DestOptionsHeader)).
Proof. eexists. split; [vm_compute; reflexivity|]. eexists. vm_compute. reflexivity. Qed.

(* Whole-packet theorems through the lax REFERENCE decoder (Parse/LaxWire.v).

   `lwire_*` decodes a packet laxly over absolute positions of the buffer (bytes `B bs i`,
   16 bit words `W bs i` of WireSpec.v; no slices, no pointers, no unchecked reads).  The lax
   MODEL is proved to compute exactly that decoding (C05_lax_refines_reference) by threading the
   representation invariant `repr` (every slice handed down is a window of the buffer) through
   LaxIpSlice / the extension walk / the link-extension loop, like StrictProofs.v does for the
   strict stack.  Everything below is a corollary of that refinement plus facts about the
   reference functions. *)
From EP Require Import Parse.Repr Parse.StrictProofs Parse.LaxWire Parse.LaxWireProofs
  Parse.LaxWireFacts Parse.LaxPrefix.

Theorem C05_lax_refines_reference : forall bs et, bytes_ok bs ->
  lvres_of (LaxSlicedPacket.from_ethernet bs) = lwire_ethernet bs /\
  lvres_of (LaxSlicedPacket.from_ether_type et bs) = lwire_ether_type bs et /\
  lvres_of (LaxSlicedPacket.from_ip bs) = lwire_from_ip bs.
Proof.
  exact (fun bs et H => conj (lax_from_ethernet_eq bs H)
           (conj (lax_from_ether_type_eq bs et H) (lax_from_ip_eq bs H))).
Qed.
Print Assumptions C05_lax_refines_reference.

(* ---- the lax model never returns Bug: no failing unchecked read / from_raw_parts / usize
   subtraction / unwrap / push_unchecked / loop bound, for every byte string ---------------- *)
Theorem C05_lax_never_bug : forall bs et b, bytes_ok bs ->
  LaxSlicedPacket.from_ethernet bs <> Bug b /\
  LaxSlicedPacket.from_ether_type et bs <> Bug b /\
  LaxSlicedPacket.from_ip bs <> Bug b.
Proof. exact lax_never_bug. Qed.
Print Assumptions C05_lax_never_bug.

(* the single-layer lax decoders, on every window [pos, lim) of every buffer (`repr bs s pos lim`;
   the whole buffer is `repr_whole : repr bs (mk_slice bs) 0 (len bs)`), for every start number nh *)
Theorem C05_lax_never_bug_single : forall bs s pos lim nh, bytes_ok bs -> repr bs s pos lim ->
  no_bug (LaxIpSlice.from_slice s) /\ no_bug (LaxIpv4Slice.from_slice s) /\
  no_bug (LaxIpv6Slice.from_slice s) /\ no_bug (LaxMacsecSlice.from_slice s) /\
  no_bug (UdpSlice.from_slice_lax s) /\ no_bug (LaxIpv6Exts.from_slice_lax nh s) /\
  no_bug (LaxIpv4Exts.from_slice_lax nh s).
Proof. exact lax_single_never_bug. Qed.
Print Assumptions C05_lax_never_bug_single.
Check (eq_refl : @no_bug = fun A (r : res A) => forall b, r <> Bug b).

(* ---- (d) whole packet: a link / network payload is marked incomplete exactly when its length
   field (MACsec short length, IPv4 total length, IPv6 payload length, read from the buffer at
   the absolute position of the layer) promises more bytes than the slice the layer was decoded
   from holds; then the payload window ends at that slice's end and len_source = Slice.
   `packet_flags_ok bs enc0 v` walks the link extensions of the view v from the slice enc0 behind
   the link header (each extension's payload window is the next layer's slice) and states that
   for every MACsec extension and for the IPv4 / IPv6 layer (definitions in Parse/LaxWire.v) *)
Theorem C05_incomplete_iff_packet : forall bs et r', bytes_ok bs ->
  (LaxSlicedPacket.from_ethernet bs = Ok r' -> packet_flags_ok bs (14, len bs - 14) (lview r')) /\
  (LaxSlicedPacket.from_ether_type et bs = Ok r' -> packet_flags_ok bs (0, len bs) (lview r')) /\
  (LaxSlicedPacket.from_ip bs = Ok r' -> packet_flags_ok bs (0, len bs) (lview r')).
Proof. exact lax_incomplete_iff_packet. Qed.
Print Assumptions C05_incomplete_iff_packet.

(* pin the meaning *)
Check (eq_refl : ip_flag_ok =
  fun (enc : window) (promised : N) (p : lvip_payload) =>
    lvip_incomplete p = (snd enc <? promised) /\
    (lvip_incomplete p = true -> lvip_src p = LsSlice /\ win_end (lvip_win p) = win_end enc)).
Check (eq_refl : net_flag_ok =
  fun bs (enc : window) (n : lvnet) =>
    match n with
    | LVIpv4 (hp, _) _ p => hp = fst enc /\ ip_flag_ok enc (W bs (fst enc + 2)) p
    | LVIpv6 (hp, _) _ _ _ p => hp = fst enc /\ ip_flag_ok enc (40 + W bs (fst enc + 4)) p
    | LVArp _ => True
    end).

(* ---- (b) whole packet ------------------------------------------------------------------------
   `pwire_*` (Parse/LaxWire.v) is the strict reference decoder of WireSpec.v instrumented to
   hand back the packet decoded so far when it rejects; forgetting that packet gives WireSpec
   back: *)
Theorem C05_partial_reference_sound : forall bs et,
  forget (pwire_ethernet bs) = wire_ethernet bs /\
  forget (pwire_ether_type bs et) = wire_ether_type bs et /\
  forget (pwire_from_ip bs) = wire_from_ip bs.
Proof. exact pwire_sound. Qed.
Print Assumptions C05_partial_reference_sound.

(* strict model = Err e behind the first header (Ethernet II header present / no link header /
   IP header decodable)  ==>  the reference decoder rejects with (q, e_ref): q = every layer in
   front of the fault, e_ref = the fault the strict model reports (C03/C07 relation res_rel);
   the lax model returns Ok r' and, outside the known class F10,
     - every layer of q is a layer of r', unchanged (vprefix on the observer views), and
     - e_ref was a documented length fallback (IPv4 total length, IPv6 payload length, MACsec
       short length, UDP length), or stop_err r' = (e', tag) with e' the same error record and a
       fitting layer tag, or (F11) e_ref is a fault of the IP header itself and stop_err r' is an
       IP-header fault with tag IpHeader at the same offset.
   Covers the rejecting cases of the link-extension loop (VLAN, MACsec header, MACsec short
   length), ARP, the IP dispatch, both IP families incl. authentication header and extension
   chain, and the transport step.
   q has LAYER granularity: for a fault inside the network layer (authentication header, extension
   chain, IPv4 total length / IPv6 payload length) `v_net q = None`, i.e. this theorem then says
   nothing about the network layer of r'; that case is C05_lax_prefix_net below. *)
Theorem C05_lax_prefix : forall bs et, bytes_ok bs ->
  (14 <= len bs ->
   prefix_ok bs (SlicedPacket.from_ethernet bs) (pwire_ethernet bs) (LaxSlicedPacket.from_ethernet bs)) /\
  prefix_ok bs (SlicedPacket.from_ether_type et bs) (pwire_ether_type bs et)
    (LaxSlicedPacket.from_ether_type et bs) /\
  (ip_header_fault bs = None ->
   prefix_ok bs (SlicedPacket.from_ip bs) (pwire_from_ip bs) (LaxSlicedPacket.from_ip bs)).
Proof. exact lax_prefix_packet. Qed.
Print Assumptions C05_lax_prefix.

(* pin the meaning *)
Check (eq_refl : prefix_ok =
  fun bs strict pw lax => forall e, strict = Err e ->
    exists q e_ref r',
      pw = PRej q e_ref /\ res_rel (VErr e) (VErr e_ref) /\ lax = Ok r' /\
      (~ F10_class bs e_ref ->
       vprefix q (strictify (lview r')) /\ lax_outcome e_ref (lview r'))).
Check (eq_refl : lax_outcome =
  fun e q =>
    fallback e \/
    (exists e' ly, lv_stop q = Some (e', ly) /\ lax_same e e' /\ tag_ok e' ly) \/
    (ip_hdr_class e /\
     exists e', lv_stop q = Some (e', LyIpHeader) /\ ip_hdr_class e' /\
                (forall o o', err_off e = Some o -> err_off e' = Some o' -> o = o'))).
Check (eq_refl : vprefix =
  fun p q => v_link p = v_link q /\ (exists rest, v_exts q = v_exts p ++ rest) /\
             (v_net p = None \/ v_net p = v_net q) /\
             (v_transport p = None \/ v_transport p = v_transport q)).
Check (eq_refl : F10_class =
  fun bs e => e = EContent (CeIpv4Version 6) \/ e = EContent (CeIpv6Version 4) \/
              (exists l, e = ELen l /\ le_layer l = LyIpv6Header /\ B bs (le_off l) / 16 = 4)).

(* ---- non-vacuity of the whole-packet theorems ------------------------------------------------- *)
Example C05_ex_bytes_ok : bytes_ok ex_pkt /\ repr ex_pkt (mk_slice ex_pkt) 0 (len ex_pkt).
Proof. split; [apply bytes_okb_spec; vm_compute; reflexivity|apply repr_whole]. Qed.

(* (d): the cut packet of C05_ex_cut: IPv4 at 18, total length W 20 = 32 > 23 bytes in the slice *)
Example C05_ex_incomplete_packet :
  exists r', LaxSlicedPacket.from_ethernet (firstn 41 ex_pkt) = Ok r' /\
    enc_after (14, 27) (lv_exts (lview r')) = (18, 23) /\ W (firstn 41 ex_pkt) 20 = 32 /\
    exists h a p, lv_net (lview r') = Some (LVIpv4 h a p) /\ lvip_incomplete p = true.
Proof. eexists. split; [vm_compute; reflexivity|]. repeat split. eexists _, _, _. split; reflexivity. Qed.

(* (b): the same packet: strict rejects at the IPv4 layer (total length fallback); the layers in
   front of the fault are the Ethernet II header and the VLAN tag *)
Example C05_ex_prefix_fallback :
  14 <= len (firstn 41 ex_pkt) /\
  pwire_ethernet (firstn 41 ex_pkt) =
    PRej (mkVPacket (Some (VEthernet2 (0, 41))) [VVlan (14, 27)] None None)
         (ELen (mkLenError 32 23 LsSlice LyIpv4Packet 18)) /\
  fallback (ELen (mkLenError 32 23 LsSlice LyIpv4Packet 18)).
Proof. split; [vm_compute; discriminate|]. split; [vm_compute; reflexivity|]. cbn. auto. Qed.

(* (b): Ethernet / IPv4 / TCP with 4 of 20 TCP header bytes: strict rejects in the transport
   layer, no fallback; lax records exactly that error on layer TcpHeader; the layers in front of
   the fault include the IPv4 layer *)
Definition ex_tcp_cut : bytes :=
  [1;2;3;4;5;6; 7;8;9;10;11;12; 8;0;
   69;0;0;24; 0;0;0;0; 64;6;0;0; 1;2;3;4; 5;6;7;8;
   0;1;0;2].
Example C05_ex_prefix_stop :
  bytes_ok ex_tcp_cut /\ 14 <= len ex_tcp_cut /\
  SlicedPacket.from_ethernet ex_tcp_cut = Err (ELen (mkLenError 20 4 LsIpv4HeaderTotalLen LyTcpHeader 34)) /\
  ~ F10_class ex_tcp_cut (ELen (mkLenError 20 4 LsIpv4HeaderTotalLen LyTcpHeader 34)) /\
  exists q r',
    pwire_ethernet ex_tcp_cut = PRej q (ELen (mkLenError 20 4 LsIpv4HeaderTotalLen LyTcpHeader 34)) /\
    v_net q = Some (VIpv4 (14, 20) None (mkVIp 6 false LsIpv4HeaderTotalLen (34, 4))) /\
    LaxSlicedPacket.from_ethernet ex_tcp_cut = Ok r' /\
    lsp_stop_err r' = Some (ELen (mkLenError 20 4 LsIpv4HeaderTotalLen LyTcpHeader 34), LyTcpHeader).
Proof.
  split; [apply bytes_okb_spec; vm_compute; reflexivity|].
  split; [vm_compute; discriminate|]. split; [vm_compute; reflexivity|].
  split.
  { intros [H|[H|(l & H & Hl & _)]]; try discriminate. injection H as <-. discriminate. }
  eexists _, _. split; [vm_compute; reflexivity|]. split; [reflexivity|].
  split; [vm_compute; reflexivity|reflexivity].
Qed.

(* ---- (c) for the lax header-struct family (LaxPacketHeaders; model Parse/HdrLaxModel.v of the
   C04 check): Err exactly when the very first header is undecodable.  `hdr_ip_header_fault` is the
   condition over the bytes as IpHeaders::from_slice_lax reports it (finding F11: a cut-short IPv4
   header is `required_len 20` here, `ihl*4` in LaxIpSlice / ip_header_fault) ------------------ *)
From EP Require Import Parse.HdrModel Parse.HdrLaxModel Parse.LaxHdrFacts.

Theorem C05_headers_err_only_first : forall bs et e,
  (LaxPacketHeaders.from_ethernet bs = Err e <->
     (len bs < 14 /\ e = ELen (mkLenError 14 (len bs) LsSlice LyEthernet2Header 0))) /\
  LaxPacketHeaders.from_ether_type et bs <> Err e /\
  (LaxPacketHeaders.from_ip bs = Err e <-> hdr_ip_header_fault bs = Some e).
Proof. exact hdr_lax_err_only_first. Qed.
Print Assumptions C05_headers_err_only_first.

Example C05_ex_headers_err :
  hdr_ip_header_fault [69; 0; 0] = Some (ELen (mkLenError 20 3 LsSlice LyIpv4Header 0)) /\
  LaxPacketHeaders.from_ip [69; 0; 0] = Err (ELen (mkLenError 20 3 LsSlice LyIpv4Header 0)) /\
  exists r, LaxPacketHeaders.from_ether_type 2048 [69; 0; 0] = Ok r /\
            lh_stop r = Some (ELen (mkLenError 20 3 LsSlice LyIpv4Header 0), LyIpHeader).
Proof.
  split; [vm_compute; reflexivity|]. split; [vm_compute; reflexivity|].
  eexists. split; [vm_compute; reflexivity|]. vm_compute. reflexivity.
Qed.

(* (a) and (b) for the lax header-struct family LaxPacketHeaders (model Parse/HdrLaxModel.v),
   derived in Parse/HdrLaxC05.v by composition of
     C04_headers_eq_slices            PacketHeaders = strict slicing cut at a refilled extension header
     C05_lax_extends_strict / C05_lax_prefix   strict slicing -> lax slicing
     C04_lax_headers_eq_slices        lax slicing cut at a refilled extension header = LaxPacketHeaders
   Both compositions pass through the UNCUT slicing results; they are therefore stated outside the
   documented struct-decoding exception: `stopped_at_ext (Cut.from_* true bs) = false` (strict) and
   `lax_stopped_at_ext (LaxCut.from_* true bs) = false` (lax): no IPv6 extension header of a kind whose
   struct slot is already filled.  Inside that class the two struct decoders are still compared with
   each other on every generated case on the implementation side. *)
From EP Require Import Parse.HdrView Parse.HdrCut Parse.HdrProofs3 Parse.HdrLaxView Parse.HdrLaxCut
  Parse.HdrLaxC05.

(* (a): whenever strict PacketHeaders accepts (Ok hp), LaxPacketHeaders returns Ok with the same link /
   link extension / network / transport header windows, the same payload (kind, ether type or IP
   number + fragmentation flag + length source, window; for an ether payload the length source is
   left out: observation (D) of notes/C04.md), no stop error and the payload not marked incomplete *)
Theorem C05_headers_lax_extends_strict : forall bs et, bytes_ok bs ->
  (forall hp, PacketHeaders.from_ethernet_slice bs = Ok hp ->
     stopped_at_ext (Cut.from_ethernet true bs) = false ->
     lax_stopped_at_ext (LaxCut.from_ethernet true bs) = false ->
     hdr_same hp (LaxPacketHeaders.from_ethernet bs)) /\
  (forall hp, PacketHeaders.from_ether_type et bs = Ok hp ->
     stopped_at_ext (Cut.from_ether_type true et bs) = false ->
     lax_stopped_at_ext (LaxCut.from_ether_type true et bs) = false ->
     hdr_same hp (LaxPacketHeaders.from_ether_type et bs)) /\
  (forall hp, PacketHeaders.from_ip_slice bs = Ok hp ->
     stopped_at_ext (Cut.from_ip true bs) = false ->
     lax_stopped_at_ext (LaxCut.from_ip true bs) = false ->
     hdr_same hp (LaxPacketHeaders.from_ip bs)).
Proof. exact hdr_lax_extends_strict. Qed.
Print Assumptions C05_headers_lax_extends_strict.

Check (eq_refl : hdr_same =
  fun hp lh =>
    exists p v v0, lh = Ok p /\ lhview_of p = Ok v /\ hview_of hp = Ok v0 /\
      option_map hvlink_win (lhv_link v) = hv_link v0 /\ lhv_exts v = hv_exts v0 /\
      lhv_net v = hv_net v0 /\ lhv_tr v = hv_tr v0 /\
      same_payload (strip_inc (lhv_payload v)) (hv_payload v0) /\
      payload_inc (lhv_payload v) = false /\ lhv_stop v = None).
Check (eq_refl : same_payload =
  fun a b => a = b \/ exists e e', a = HvpEther e /\ b = HvpEther e' /\
                                   vep_type e = vep_type e' /\ vep_win e = vep_win e').

(* (b): strict slicing rejects with e behind the first header  ==>  the instrumented reference decoder
   rejects with (q, e_ref) (q = the layers in front of the fault -- it never contains a transport layer --,
   e_ref = the fault, C03/C07 relation to e), LaxPacketHeaders returns Ok p, and outside F10: the link
   extensions and the network header of q are layers of p with their header windows, and e_ref is a
   documented length fallback, or the stop error of p is the same record (length source: the true one,
   Slice, or F7) with a fitting layer tag, or (F11 group) e_ref is a fault of the IP header itself and the
   stop error of p is a fault of the IP header with tag IpHeader (at the same offset unless p is in the
   F11-like class `f11_stop`).
   The prefix of a rejection never has a transport layer (`v_transport q = None`:
   pwire_rej_no_transport, Parse/LaxHdrPrefix2.v).
   As for C05_lax_prefix, q has layer granularity: for a fault inside the network layer `v_net q = None`;
   that case is C05_headers_lax_prefix_net. *)
From EP Require Import Parse.LaxHdrPrefix2.
Theorem C05_headers_lax_prefix : forall bs et, bytes_ok bs ->
  (14 <= len bs ->
   hdr_prefix_ok2 bs (SlicedPacket.from_ethernet bs) (pwire_ethernet bs)
     (LaxCut.from_ethernet true bs) (LaxPacketHeaders.from_ethernet bs)) /\
  hdr_prefix_ok2 bs (SlicedPacket.from_ether_type et bs) (pwire_ether_type bs et)
    (LaxCut.from_ether_type true et bs) (LaxPacketHeaders.from_ether_type et bs) /\
  (ip_header_fault bs = None ->
   hdr_prefix_ok2 bs (SlicedPacket.from_ip bs) (pwire_from_ip bs)
     (LaxCut.from_ip true bs) (LaxPacketHeaders.from_ip bs)).
Proof. exact hdr_lax_prefix2. Qed.
Print Assumptions C05_headers_lax_prefix.

Check (eq_refl : hdr_prefix_ok2 =
  fun bs strict pw laxcut lh => forall e, strict = Err e -> lax_stopped_at_ext laxcut = false ->
    exists q e_ref p v,
      pw = PRej q e_ref /\ v_transport q = None /\ res_rel (VErr e) (VErr e_ref) /\ lh = Ok p /\
      lhview_of p = Ok v /\
      (~ F10_class bs e_ref -> hdr_prefix2 q v /\ hdr_outcome e_ref v)).
Check (eq_refl : hdr_prefix2 =
  fun q v =>
    (exists rest, lhv_exts v = map ext_hdr (v_exts q) ++ rest) /\
    (v_net q = None \/ option_map net_hdr (v_net q) = lhv_net v)).
Check (eq_refl : hdr_outcome =
  fun e v =>
    fallback e \/
    (exists e' ly, lhv_stop v = Some (e', ly) /\ lax_same e e' /\ tag_ok e' ly) \/
    (ip_hdr_class e /\
     exists e', lhv_stop v = Some (e', LyIpHeader) /\ ip_hdr_class e' /\
       (f11_stop (lhv_stop v) = false ->
        forall o o', err_off e = Some o -> err_off e' = Some o' -> o = o'))).

(* non-vacuity.  (a): the packet of C05_ex_extends; (b): the packet of C05_ex_prefix_stop (TCP header
   cut short: recorded on layer TcpHeader, IPv4 layer in front of the fault) *)
Example C05_ex_headers_extends :
  bytes_ok ex_pkt /\
  (exists hp, PacketHeaders.from_ethernet_slice ex_pkt = Ok hp) /\
  stopped_at_ext (Cut.from_ethernet true ex_pkt) = false /\
  lax_stopped_at_ext (LaxCut.from_ethernet true ex_pkt) = false /\
  lhvres_of_h (LaxPacketHeaders.from_ethernet ex_pkt) =
    LHOk (mkLHv (Some (HvlEthernet2 (0, 14))) [HvVlan (14, 4)] (Some (HvIpv4 (18, 20) None))
                (Some (HvUdp (38, 8))) (LHvpUdp false (46, 4)) None).
Proof.
  split; [apply bytes_okb_spec; vm_compute; reflexivity|].
  split; [eexists; vm_compute; reflexivity|]. vm_compute. repeat split.
Qed.

Example C05_ex_headers_prefix :
  bytes_ok ex_tcp_cut /\ 14 <= len ex_tcp_cut /\
  SlicedPacket.from_ethernet ex_tcp_cut = Err (ELen (mkLenError 20 4 LsIpv4HeaderTotalLen LyTcpHeader 34)) /\
  lax_stopped_at_ext (LaxCut.from_ethernet true ex_tcp_cut) = false /\
  lhvres_of_h (LaxPacketHeaders.from_ethernet ex_tcp_cut) =
    LHOk (mkLHv (Some (HvlEthernet2 (0, 14))) [] (Some (HvIpv4 (14, 20) None)) None
                (LHvpIp (mkLVIp false 6 false LsIpv4HeaderTotalLen (34, 4)))
                (Some (ELen (mkLenError 20 4 LsIpv4HeaderTotalLen LyTcpHeader 34), LyTcpHeader))).
Proof.
  split; [apply bytes_okb_spec; vm_compute; reflexivity|].
  split; [vm_compute; discriminate|]. vm_compute. repeat split.
Qed.

(* ---- faults INSIDE the network layer ------------------------------------------
   `pwire_*` above has layer granularity: for a fault inside the network layer (IPv4 authentication
   header, IPv6 extension header chain, IPv4 total length / IPv6 payload length larger than the data) its
   rejection prefix q has `v_net q = None`, so C05_lax_prefix says nothing about the IP header, the good
   extension headers in front of the faulty one, or the IP payload descriptor of the lax result.
   `pwire2_*` (Parse/LaxWire2.v) is the same strict reference decoder instrumented more finely:
     P2RejNet q n tag e   fault e at an authentication / extension header of kind `tag` behind a good IP
                          header; n = the network layer as far as it decodes (IP header window; IPv6: first
                          next-header, fragmentation flag so far, window of the extension headers completely
                          decoded in front of the faulty one; payload descriptor = from the faulty header to
                          the end of what the IP length field allows, ip number = the one that announced
                          the faulty header)
     P2Fb q e inc resumed e = the IPv4 total length / IPv6 payload length check (documented fallback);
                          resumed = the same strict decoder continued with the data that is there (limit =
                          end of the enclosing data, length source Slice), inc = the field promised more
                          than is there
     P2Rej q e            any other rejection, as pwire.
   Forgetting the extra information gives pwire back, hence WireSpec: pwire2 accepts / rejects exactly like
   the wire format specification, with the same error record. *)
From EP Require Import Parse.LaxWire2 Parse.LaxPrefixNet.

Theorem C05_partial_reference2_sound : forall bs et,
  (to_pres (pwire2_ethernet bs) = pwire_ethernet bs /\
   to_pres (pwire2_ether_type bs et) = pwire_ether_type bs et /\
   to_pres (pwire2_from_ip bs) = pwire_from_ip bs) /\
  (forget (to_pres (pwire2_ethernet bs)) = wire_ethernet bs /\
   forget (to_pres (pwire2_ether_type bs et)) = wire_ether_type bs et /\
   forget (to_pres (pwire2_from_ip bs)) = wire_from_ip bs).
Proof. exact (fun bs et => conj (pwire2_is_pwire bs et) (pwire2_sound bs et)). Qed.
Print Assumptions C05_partial_reference2_sound.

Check (eq_refl : to_pres =
  fun r => match r with
           | P2Acc p => PAcc p
           | P2Rej p e | P2RejNet p _ _ e | P2Fb p e _ _ => PRej p e
           | P2Bug s => PBug s
           end).

(* strict model = Err e behind the first header  ==>  pwire2 rejects with e_ref = the fault the strict model
   reports (C03/C07 relation res_rel); it answers P2RejNet / P2Fb EXACTLY when e names a place inside the
   network layer (in_net_layer e: layer IpAuthHeader / Ipv6ExtHeader / Ipv6FragHeader / Ipv4Packet /
   Ipv6Packet, or content error zero authentication payload length / hop-by-hop not at start); the lax model
   returns Ok r' and
     - P2RejNet _ n tag e_ref : the network layer of r' is exactly n, the stop error is exactly (e_ref, tag)
       -- the same record incl. length source, on the tag of the faulty header (Ipv6HopByHopHeader /
       Ipv6DestOptionsHeader / Ipv6RouteHeader / Ipv6FragHeader / IpAuthHeader) -- and no transport layer;
     - P2Fb _ e_ref inc resumed : the network layer n of r' has incomplete = inc and len_source = Slice
       (clause (d)), and it is the network layer of the resumed strict decoding: if that fails inside the
       network layer (P2RejNet), n is exactly its network layer and the stop error exactly its (error, tag);
       if it accepts or fails behind the network layer, its network layer is n without the incomplete flag,
       and a fault e' behind it is again a documented fallback or recorded (lax_outcome e').
   No F10 exclusion is needed: in the F10 class pwire2 answers P2Rej.  Holds for all byte strings. *)
Theorem C05_lax_prefix_net : forall bs et, bytes_ok bs ->
  (14 <= len bs ->
   prefix_net_ok (SlicedPacket.from_ethernet bs) (pwire2_ethernet bs) (LaxSlicedPacket.from_ethernet bs)) /\
  prefix_net_ok (SlicedPacket.from_ether_type et bs) (pwire2_ether_type bs et)
    (LaxSlicedPacket.from_ether_type et bs) /\
  (ip_header_fault bs = None ->
   prefix_net_ok (SlicedPacket.from_ip bs) (pwire2_from_ip bs) (LaxSlicedPacket.from_ip bs)).
Proof. exact lax_prefix_net_packet. Qed.
Print Assumptions C05_lax_prefix_net.

(* pin the meaning *)
Check (eq_refl : prefix_net_ok =
  fun strict pw lax => forall e, strict = Err e ->
    exists e_ref r',
      rej2 pw = Some e_ref /\ res_rel (VErr e) (VErr e_ref) /\
      is_net_rej pw = in_net_layer e /\
      lax = Ok r' /\ net_outcome lax_outcome pw (lview r')).
Check (eq_refl : rej2 =
  fun r => match r with P2Rej _ e | P2RejNet _ _ _ e | P2Fb _ e _ _ => Some e | _ => None end).
Check (eq_refl : is_net_rej =
  fun r => match r with P2RejNet _ _ _ _ | P2Fb _ _ _ _ => true | _ => false end).
Check (eq_refl : in_net_layer =
  fun e => match e with
           | ELen l => match le_layer l with
                       | LyIpAuthHeader | LyIpv6ExtHeader | LyIpv6FragHeader | LyIpv4Packet | LyIpv6Packet => true
                       | _ => false
                       end
           | EContent c => match c with
                           | CeAuthZeroPayloadLen | CeIpv6AuthZeroPayloadLen | CeHopByHopNotAtStart => true
                           | _ => false
                           end
           end).
Check (eq_refl : stopped_in_net =
  fun q n tag e => lv_net q = Some n /\ lv_stop q = Some (e, tag) /\ lv_transport q = None).
Check (eq_refl : net_outcome =
  fun behind pw q =>
    match pw with
    | P2RejNet _ n tag e => stopped_in_net q n tag e
    | P2Fb _ _ inc resumed =>
        exists n, lv_net q = Some n /\ net_flags n = Some (inc, LsSlice) /\
          match resumed with
          | P2RejNet _ n' tag e' => n' = n /\ stopped_in_net q n tag e'
          | P2Acc q' => v_net q' = Some (strictify_net n)
          | P2Rej q' e' => v_net q' = Some (strictify_net n) /\ behind e' q
          | _ => False
          end
    | _ => True
    end).
Check (eq_refl : net_flags =
  fun n => match n with
           | LVIpv4 _ _ p | LVIpv6 _ _ _ _ p => Some (lvip_incomplete p, lvip_src p)
           | LVArp _ => None
           end).

(* ---- (d), single layer, for LaxIpSlice::from_slice (C05_incomplete_iff lists LaxIpv4Slice / LaxIpv6Slice /
   LaxMacsecSlice): on every window [pos, lim) of every buffer the payload of the returned IPv4 / IPv6 slice
   is marked incomplete exactly when the total length (40 + payload length) read at the window's start
   exceeds the window; then len_source = Slice and the payload ends at the window's end
   (net_flag_ok / ip_flag_ok pinned above; the whole buffer is `repr_whole`) *)
Theorem C05_incomplete_iff_ipslice : forall bs s pos lim ip st,
  bytes_ok bs -> repr bs s pos lim ->
  LaxIpSlice.from_slice s = Ok (ip, st) ->
  net_flag_ok bs (pos, lim - pos) (lview_net (LaxSlicedPacketCursor.net_of_ip ip)).
Proof. exact lax_ipslice_incomplete. Qed.
Print Assumptions C05_incomplete_iff_ipslice.

(* ---- non-vacuity ----------------------------------------------------------------------------------------- *)
(* Ethernet II / IPv6 (payload length 20) / destination options (8 bytes, complete,
   next = routing) / routing header announcing 16 bytes with 12 present.  pwire hands back no network layer;
   pwire2 hands back the IPv6 header, first next-header 60, the extension window [54, 62) and the payload
   descriptor (number 43, [62, 74)); lax has exactly that network layer and the stop error on Ipv6RouteHeader *)
Definition ex_v6_route_cut : bytes :=
  [1;2;3;4;5;6; 7;8;9;10;11;12; 134;221;
   96;0;0;0; 0;20; 60;64] ++ repeat 0 32 ++ [43;0;0;0;0;0;0;0] ++ [17;1;0;0;0;0;0;0;0;0;0;0].
Definition ex_v6_route_err : slice_error :=
  ELen (mkLenError 16 12 LsIpv6HeaderPayloadLen LyIpv6ExtHeader 62).
Definition ex_v6_route_net : lvnet :=
  LVIpv6 (14, 40) (Some 60) false (54, 8) (mkLVIp false 43 false LsIpv6HeaderPayloadLen (62, 12)).
Example C05_ex_prefix_net_v6 :
  bytes_ok ex_v6_route_cut /\ 14 <= len ex_v6_route_cut /\
  SlicedPacket.from_ethernet ex_v6_route_cut = Err ex_v6_route_err /\
  in_net_layer ex_v6_route_err = true /\
  pwire_ethernet ex_v6_route_cut =
    PRej (mkVPacket (Some (VEthernet2 (0, 74))) [] None None) ex_v6_route_err /\
  pwire2_ethernet ex_v6_route_cut =
    P2RejNet (mkVPacket (Some (VEthernet2 (0, 74))) [] None None) ex_v6_route_net
      LyIpv6RouteHeader ex_v6_route_err /\
  exists r', LaxSlicedPacket.from_ethernet ex_v6_route_cut = Ok r' /\
    lv_net (lview r') = Some ex_v6_route_net /\
    lsp_stop_err r' = Some (ex_v6_route_err, LyIpv6RouteHeader).
Proof.
  split; [apply bytes_okb_spec; vm_compute; reflexivity|].
  split; [vm_compute; discriminate|].
  split; [vm_compute; reflexivity|]. split; [reflexivity|].
  split; [vm_compute; reflexivity|]. split; [vm_compute; reflexivity|].
  eexists. split; [vm_compute; reflexivity|]. split; reflexivity.
Qed.

(* bare IPv4 (total length 32) / authentication header with payload length 0: content error; the network
   layer handed back = IPv4 header, no authentication header, payload (number 51) = the 12 bytes behind *)
Definition ex_v4_ah_zero : bytes :=
  [69;0;0;32; 0;0;0;0; 64;51;0;0; 1;2;3;4; 5;6;7;8] ++ [17;0;0;0;0;0;0;0;0;0;0;0].
Example C05_ex_prefix_net_v4 :
  bytes_ok ex_v4_ah_zero /\ ip_header_fault ex_v4_ah_zero = None /\
  SlicedPacket.from_ip ex_v4_ah_zero = Err (EContent CeAuthZeroPayloadLen) /\
  pwire2_from_ip ex_v4_ah_zero =
    P2RejNet empty_packet (LVIpv4 (0, 20) None (mkLVIp false 51 false LsIpv4HeaderTotalLen (20, 12)))
      LyIpAuthHeader (EContent CeAuthZeroPayloadLen) /\
  exists r', LaxSlicedPacket.from_ip ex_v4_ah_zero = Ok r' /\
    lv_net (lview r') = Some (LVIpv4 (0, 20) None (mkLVIp false 51 false LsIpv4HeaderTotalLen (20, 12))) /\
    lsp_stop_err r' = Some (EContent CeAuthZeroPayloadLen, LyIpAuthHeader).
Proof.
  split; [apply bytes_okb_spec; vm_compute; reflexivity|].
  split; [vm_compute; reflexivity|]. split; [vm_compute; reflexivity|].
  split; [vm_compute; reflexivity|].
  eexists. split; [vm_compute; reflexivity|]. split; reflexivity.
Qed.

(* length fallback: bare IPv4 announcing 100 bytes with 24 present, protocol 51, 4 bytes of an
   authentication header: strict rejects at the total length; the resumed decoding fails at the
   authentication header; lax: payload incomplete, length source Slice, ends at the slice end, stop error
   = the resumed decoder's on IpAuthHeader.  Also an instance of C05_incomplete_iff_ipslice *)
Definition ex_v4_fb_ah : bytes :=
  [69;0;0;100; 0;0;0;0; 64;51;0;0; 1;2;3;4; 5;6;7;8] ++ [17;4;0;0].
Example C05_ex_prefix_net_fallback :
  bytes_ok ex_v4_fb_ah /\ ip_header_fault ex_v4_fb_ah = None /\
  SlicedPacket.from_ip ex_v4_fb_ah = Err (ELen (mkLenError 100 24 LsSlice LyIpv4Packet 0)) /\
  pwire2_from_ip ex_v4_fb_ah =
    P2Fb empty_packet (ELen (mkLenError 100 24 LsSlice LyIpv4Packet 0)) true
      (P2RejNet empty_packet (LVIpv4 (0, 20) None (mkLVIp true 51 false LsSlice (20, 4)))
         LyIpAuthHeader (ELen (mkLenError 12 4 LsSlice LyIpAuthHeader 20))) /\
  (exists r', LaxSlicedPacket.from_ip ex_v4_fb_ah = Ok r' /\
    lv_net (lview r') = Some (LVIpv4 (0, 20) None (mkLVIp true 51 false LsSlice (20, 4))) /\
    lsp_stop_err r' = Some (ELen (mkLenError 12 4 LsSlice LyIpAuthHeader 20), LyIpAuthHeader)) /\
  exists ip st, LaxIpSlice.from_slice (mk_slice ex_v4_fb_ah) = Ok (ip, st) /\
    lview_net (LaxSlicedPacketCursor.net_of_ip ip) =
      LVIpv4 (0, 20) None (mkLVIp true 51 false LsSlice (20, 4)).
Proof.
  split; [apply bytes_okb_spec; vm_compute; reflexivity|].
  split; [vm_compute; reflexivity|]. split; [vm_compute; reflexivity|].
  split; [vm_compute; reflexivity|]. split.
  - eexists. split; [vm_compute; reflexivity|]. split; reflexivity.
  - eexists _, _. split; vm_compute; reflexivity.
Qed.

(* ---- LaxPacketHeaders, faults INSIDE the network layer ---------------------------------
   C05_headers_lax_prefix above inherits pwire's layer granularity: for a fault inside the network layer it
   speaks about the link extensions and the stop error only.  Here the finer reference decoder pwire2 of
   C05_lax_prefix_net is carried over to LaxPacketHeaders, by composition (Parse/LaxHdrPrefixNet.v) of
   C05_lax_prefix_net with C04's lax whole-packet theorem (C04_lax_headers_eq_slices: `lhagree` between
   LaxPacketHeaders and the lax slicing result cut at a refilled extension header), C04_lax_cut_is_slicing_*
   and C04_lax_ipv6_slots_in_order.  No new model.

   strict slicing = Err e behind the first header, outside the documented struct-decoding exception
   (`lax_stopped_at_ext (LaxCut.from_* true bs) = false`)  ==>  everything C05_lax_prefix_net says about
   pwire2 and the LaxSlicedPacket result r', and LaxPacketHeaders returns Ok p with view v such that
     - pwire2 = P2RejNet _ n tag e_ref (fault at an authentication / extension header behind a good IP header):
       the network header windows of v are exactly those of n (IP header window; IPv4: no authentication
       header; IPv6: first next-header, fragmentation flag so far, window of the extension headers
       completely decoded in front of the faulty one), v has no transport header, the payload of v is the IP
       payload descriptor of n (incomplete flag, the ip number that announced the faulty header,
       fragmentation flag, length source, window from the faulty header to the end of what the IP length
       field allows), and the stop error of v is (e', tag) with the EXACT layer tag and e' = e_ref, or e' =
       e_ref with the length source replaced by Slice (`stop_same`: C04's disclosed relaxation, observation
       (C) of notes/C04.md).  The relaxation is needed inside the network layer:
       C05_headers_stop_src_refuted below is the witness (MACsec short length in front of an IPv6 payload
       length fallback: the reference decoder and LaxSlicedPacket name MacsecShortLength in the record,
       LaxPacketHeaders names Slice);
     - pwire2 = P2Fb _ _ inc resumed (IPv4 total length / IPv6 payload length fallback): the network header
       windows of v are those of the network layer n of the resumed strict decoding, net_flags n = (inc,
       Slice), the payload of v is flagged incomplete exactly when inc; resumed = P2RejNet: the previous
       item for it; resumed accepts / fails behind the network layer: n is its network layer and a fault
       behind it satisfies hdr_outcome (as in C05_headers_lax_prefix);
     - IPv6: the struct's slots hold exactly the extension headers the (uncut) LaxSlicedPacket result r'
       iterates to -- the headers decoded in front of the fault, whose window is the extension window of n
       (`lax_slots_in_order`, pinned at C04_lax_ipv6_slots_in_order).
   The F11 clause of C04's stop error relation cannot fire: every P2RejNet of pwire2, nested ones included,
   carries an error with in_net_layer = true (C05_partial_reference2_nested_class). *)
From EP Require Import Parse.HdrLaxSlots2 Parse.LaxHdrPrefixNet.

Theorem C05_partial_reference2_nested_class : forall bs et,
  nested_class (pwire2_ethernet bs) /\ nested_class (pwire2_ether_type bs et) /\
  nested_class (pwire2_from_ip bs).
Proof. exact pwire2_nested_class. Qed.
Print Assumptions C05_partial_reference2_nested_class.

Theorem C05_headers_lax_prefix_net : forall bs et, bytes_ok bs ->
  (14 <= len bs ->
   hdr_prefix_net_ok (SlicedPacket.from_ethernet bs) (pwire2_ethernet bs)
     (LaxCut.from_ethernet true bs) (LaxSlicedPacket.from_ethernet bs) (LaxPacketHeaders.from_ethernet bs)) /\
  hdr_prefix_net_ok (SlicedPacket.from_ether_type et bs) (pwire2_ether_type bs et)
    (LaxCut.from_ether_type true et bs) (LaxSlicedPacket.from_ether_type et bs)
    (LaxPacketHeaders.from_ether_type et bs) /\
  (ip_header_fault bs = None ->
   hdr_prefix_net_ok (SlicedPacket.from_ip bs) (pwire2_from_ip bs)
     (LaxCut.from_ip true bs) (LaxSlicedPacket.from_ip bs) (LaxPacketHeaders.from_ip bs)).
Proof. exact hdr_lax_prefix_net. Qed.
Print Assumptions C05_headers_lax_prefix_net.

(* pin the meaning *)
Check (eq_refl : hdr_prefix_net_ok =
  fun strict pw laxcut lax lh => forall e, strict = Err e -> lax_stopped_at_ext laxcut = false ->
    exists e_ref r' p v,
      rej2 pw = Some e_ref /\ res_rel (VErr e) (VErr e_ref) /\ is_net_rej pw = in_net_layer e /\
      lax = Ok r' /\ net_outcome lax_outcome pw (lview r') /\
      lh = Ok p /\ lhview_of p = Ok v /\ hdr_net_outcome pw v /\
      lax_slots_in_order (Ok p) (Ok r')).
Check (eq_refl : hdr_net_outcome =
  fun pw v =>
    match pw with
    | P2RejNet _ n tag e => hdr_stopped_in_net v n tag e
    | P2Fb _ _ inc resumed =>
        exists n, lhv_net v = Some (lnet_hdr n) /\ net_flags n = Some (inc, LsSlice) /\
          payload_inc (lhv_payload v) = inc /\
          match resumed with
          | P2RejNet _ n' tag e' => n' = n /\ hdr_stopped_in_net v n tag e'
          | P2Acc q' => v_net q' = Some (strictify_net n)
          | P2Rej q' e' => v_net q' = Some (strictify_net n) /\ hdr_outcome e' v
          | _ => False
          end
    | _ => True
    end).
Check (eq_refl : hdr_stopped_in_net =
  fun v n tag e =>
    lhv_net v = Some (lnet_hdr n) /\ lhv_tr v = None /\ lhv_payload v = lnet_payload n /\
    exists e', lhv_stop v = Some (e', tag) /\ stop_same e' e).
Check (eq_refl : lnet_hdr =
  fun n => match strictify_net n with
           | VIpv4 h a _ => HvIpv4 h a
           | VIpv6 h f fr x _ => HvIpv6 h f fr x
           | VArp w => HvArp w
           end).
Check (eq_refl : lnet_payload =
  fun n => match n with LVIpv4 _ _ p | LVIpv6 _ _ _ _ p => LHvpIp p | LVArp _ => LHvpEmpty end).
Check (eq_refl : stop_same =
  fun eh es =>
    match eh, es with
    | ELen lh, ELen ls => lh = ls \/ lh = le_set_src ls LsSlice
    | EContent c, EContent c' => c = c'
    | _, _ => False
    end).
Check (eq_refl : nested_class =
  fix nc (pw : pres2) : Prop :=
    match pw with
    | P2RejNet _ _ _ e => in_net_layer e = true
    | P2Fb _ _ _ r => nc r
    | _ => True
    end).

(* `stop_same` cannot be strengthened to equality, also for faults inside the network layer: on this packet
   (Ethernet II / MACsec with short length / IPv6 whose payload length exceeds the data / destination options
   / routing header cut short) pwire2 answers P2Fb .. (P2RejNet .. (ELen l)) with le_src l =
   MacsecShortLength, LaxSlicedPacket records exactly that, LaxPacketHeaders records l with source Slice;
   the network header windows, the payload descriptor and the layer tag agree *)
Theorem C05_headers_stop_src_refuted :
  exists bs q q' e n l,
    bytes_ok bs /\ 14 <= len bs /\ lax_stopped_at_ext (LaxCut.from_ethernet true bs) = false /\
    pwire2_ethernet bs = P2Fb q e true (P2RejNet q' n LyIpv6RouteHeader (ELen l)) /\
    le_src l = LsMacsecShortLength /\
    (exists r', LaxSlicedPacket.from_ethernet bs = Ok r' /\
                lsp_stop_err r' = Some (ELen l, LyIpv6RouteHeader)) /\
    exists p v, LaxPacketHeaders.from_ethernet bs = Ok p /\ lhview_of p = Ok v /\
                lhv_net v = Some (lnet_hdr n) /\ lhv_payload v = lnet_payload n /\
                lhv_stop v = Some (ELen (le_set_src l LsSlice), LyIpv6RouteHeader) /\
                ELen (le_set_src l LsSlice) <> ELen l.
Proof. exact lax_hdr_stop_src_refuted. Qed.
Print Assumptions C05_headers_stop_src_refuted.

(* non-vacuity: the packet of C05_ex_prefix_net_v6 (routing header cut short behind a complete destination
   options header): hypotheses hold, pwire2 = P2RejNet, the struct view has the IPv6 header window, first
   next-header 60, the extension window [54, 62), the payload descriptor (number 43, [62, 74)), the stop error
   = the reference decoder's record on Ipv6RouteHeader; the destination options slot holds [54, 62), the
   routing slot is empty *)
Example C05_ex_headers_prefix_net_v6 :
  bytes_ok ex_v6_route_cut /\ 14 <= len ex_v6_route_cut /\
  SlicedPacket.from_ethernet ex_v6_route_cut = Err ex_v6_route_err /\
  lax_stopped_at_ext (LaxCut.from_ethernet true ex_v6_route_cut) = false /\
  pwire2_ethernet ex_v6_route_cut =
    P2RejNet (mkVPacket (Some (VEthernet2 (0, 74))) [] None None) ex_v6_route_net
      LyIpv6RouteHeader ex_v6_route_err /\
  lhvres_of_h (LaxPacketHeaders.from_ethernet ex_v6_route_cut) =
    LHOk (mkLHv (Some (HvlEthernet2 (0, 14))) [] (Some (HvIpv6 (14, 40) (Some 60) false (54, 8))) None
                (LHvpIp (mkLVIp false 43 false LsIpv6HeaderPayloadLen (62, 12)))
                (Some (ex_v6_route_err, LyIpv6RouteHeader))) /\
  lnet_hdr ex_v6_route_net = HvIpv6 (14, 40) (Some 60) false (54, 8) /\
  exists p hd x, LaxPacketHeaders.from_ethernet ex_v6_route_cut = Ok p /\
    lh_net p = Some (HnIp (IhV6 hd x)) /\
    map (fun k => option_map win_of (HdrSlots.slot_get x k))
        [HdrSlots.SHbh; HdrSlots.SDest; HdrSlots.SRoute; HdrSlots.SFdest; HdrSlots.SFrag; HdrSlots.SAuth] =
      [None; Some (54, 8); None; None; None; None].
Proof.
  split; [apply bytes_okb_spec; vm_compute; reflexivity|].
  split; [vm_compute; discriminate|]. split; [vm_compute; reflexivity|].
  split; [vm_compute; reflexivity|]. split; [vm_compute; reflexivity|].
  split; [vm_compute; reflexivity|]. split; [reflexivity|].
  do 3 eexists. split; [vm_compute; reflexivity|]. split; [reflexivity|]. vm_compute; reflexivity.
Qed.

(* the fallback case: the packet of C05_ex_prefix_net_fallback (IPv4 announcing 100 bytes with 24 present,
   4 bytes of an authentication header) *)
Example C05_ex_headers_prefix_net_fallback :
  bytes_ok ex_v4_fb_ah /\ ip_header_fault ex_v4_fb_ah = None /\
  lax_stopped_at_ext (LaxCut.from_ip true ex_v4_fb_ah) = false /\
  lhvres_of_h (LaxPacketHeaders.from_ip ex_v4_fb_ah) =
    LHOk (mkLHv None [] (Some (HvIpv4 (0, 20) None)) None
                (LHvpIp (mkLVIp true 51 false LsSlice (20, 4)))
                (Some (ELen (mkLenError 12 4 LsSlice LyIpAuthHeader 20), LyIpAuthHeader))).
Proof. split; [apply bytes_okb_spec; vm_compute; reflexivity|]. vm_compute. repeat split. Qed.

(* ---- clause (d) for LaxPacketHeaders -----------------------------
   Composition (Parse/LaxHdrIncomplete.v) of C04_lax_headers_eq_slices (LaxPacketHeaders = cut lax slicing),
   C04_lax_cut_is_slicing_* (cut = uncut outside the refilled-extension class), lconv_payload_inc / the text
   of `lconv` and `carry_src`, and C05_incomplete_iff_packet.  No new model.

   LaxPacketHeaders.from_X bs = Ok p (X = ethernet / ether_type et / ip), outside the refilled-extension
   class  ==>  LaxSlicedPacket.from_X bs = Ok r' with packet_flags_ok (C05_incomplete_iff_packet: every
   MACsec extension and the IP layer of r' is flagged exactly when its length field, read from the buffer at
   the layer's absolute position, promises more than the enclosing slice holds), the link-extension and
   network header windows of p are those of r', and the one payload p hands out is
     - behind an IPv4 / IPv6 header at the start of the enclosing slice enc = enc_after enc0 (exts of r'):
       flagged incomplete exactly when  snd enc < total length  /  snd enc < 40 + payload length  (words of the
       buffer at fst enc + 2 / fst enc + 4); when p has no transport header the payload is an IP payload
       descriptor with ip_flag_ok: flagged => length source Slice, window ends at the end of enc;
     - behind ARP (no transport header): Empty;
     - no network and no transport header, last link extension MACsec (hp, hl) decoded from the slice enc =
       (pos, a): hp = pos, flagged exactly when (0 < sl) && (a < hl + body) (sl = B(pos+1) mod 64, body = sl
       or sl - 2), flagged => the window is (pos + hl, a - hl) and ends at the end of enc, and for an
       unmodified payload the length source is `lvexts_src ys Slice`: the last length source other than
       Slice of the MACsec extensions in FRONT (= Slice when none of them had a short length);
     - no network and no transport header, last link extension a VLAN tag / no link extension: not flagged.
   Clause (d3) "the slice reported as length source" is thereby proved for IP payloads and for the ether
   payload behind a single MACsec header; behind two MACsec headers it is REFUTED for LaxPacketHeaders
   (C05_headers_incomplete_src_refuted: real crate behaviour, observation (D) of notes/C04.md reaching (d3)).
   The transport payloads (Udp / Tcp / Icmpv4 / Icmpv6 { incomplete }) carry the IP payload's flag and no
   length source.  from_ip needs no F11 hypothesis (inside F11 LaxPacketHeaders::from_ip returns Err). *)
From EP Require Import Parse.LaxHdrIncomplete.

Theorem C05_headers_incomplete_iff : forall bs et, bytes_ok bs ->
  hdr_flags_ok bs (14, len bs - 14) (LaxCut.from_ethernet true bs) (LaxSlicedPacket.from_ethernet bs)
    (LaxPacketHeaders.from_ethernet bs) /\
  hdr_flags_ok bs (0, len bs) (LaxCut.from_ether_type true et bs) (LaxSlicedPacket.from_ether_type et bs)
    (LaxPacketHeaders.from_ether_type et bs) /\
  hdr_flags_ok bs (0, len bs) (LaxCut.from_ip true bs) (LaxSlicedPacket.from_ip bs)
    (LaxPacketHeaders.from_ip bs).
Proof. exact hdr_lax_incomplete_iff. Qed.
Print Assumptions C05_headers_incomplete_iff.

(* pin the meaning *)
Check (eq_refl : hdr_flags_ok =
  fun bs enc0 laxcut lax lh => forall p, lh = Ok p -> lax_stopped_at_ext laxcut = false ->
    exists r' v,
      lax = Ok r' /\ lhview_of p = Ok v /\
      packet_flags_ok bs enc0 (lview r') /\
      lhv_exts v = map (fun x => ext_hdr (strictify_ext x)) (lv_exts (lview r')) /\
      lhv_net v = option_map lnet_hdr (lv_net (lview r')) /\
      hdr_payload_flag_ok bs enc0 (lview r') v).
Check (eq_refl : hdr_payload_flag_ok =
  fun bs enc0 q v =>
    let pl := lhv_payload v in
    let enc := enc_after enc0 (lv_exts q) in
    match lv_net q with
    | Some (LVIpv4 _ _ _) => ip_payload_ok enc (W bs (fst enc + 2)) (lhv_tr v) pl
    | Some (LVIpv6 _ _ _ _ _) => ip_payload_ok enc (40 + W bs (fst enc + 4)) (lhv_tr v) pl
    | Some (LVArp _) => lhv_tr v = None -> pl = LHvpEmpty
    | None =>
        lhv_tr v = None ->
        (forall ys hdr mp, lv_exts q = ys ++ [LVMacsec hdr mp] ->
           macsec_payload_ok bs (enc_after enc0 ys) (lvexts_src ys LsSlice) hdr pl) /\
        (forall ys w, lv_exts q = ys ++ [LVVlan w] -> payload_inc pl = false) /\
        (lv_exts q = [] -> payload_inc pl = false)
    end).
Check (eq_refl : ip_payload_ok =
  fun enc promised tr pl =>
    payload_inc pl = (snd enc <? promised) /\
    (tr = None -> exists p, pl = LHvpIp p /\ ip_flag_ok enc promised p)).
Check (eq_refl : macsec_payload_ok =
  fun bs enc carried hdr pl =>
    let pos := fst enc in
    let a := snd enc in
    let sl := B bs (pos + 1) mod 64 in
    let unmod := (B bs pos / 4) mod 4 =? 0 in
    let body := if unmod then sl - 2 else sl in
    let hl := snd hdr in
    fst hdr = pos /\
    payload_inc pl = ((0 <? sl) && (a <? hl + body)) /\
    (payload_inc pl = true ->
     match pl with
     | LHvpEther e =>
         lvep_win e = (pos + hl, a - hl) /\ win_end (lvep_win e) = win_end enc /\ lvep_src e = carried
     | LHvpMacsecMod _ w => w = (pos + hl, a - hl) /\ win_end w = win_end enc
     | _ => False
     end)).
Check (eq_refl : lvexts_src =
  fix f (l : list lvlink_ext) (acc : len_source) : len_source :=
    match l with
    | [] => acc
    | LVMacsec _ (LVMpUnmodified e) :: r => f r (match lvep_src e with LsSlice => acc | s => s end)
    | _ :: r => f r acc
    end).

(* (d3) does not hold for the ether payload of LaxPacketHeaders behind two MACsec headers: Ethernet II /
   MACsec unmodified, short length 20 (met: 18 bytes follow the SecTAG) / MACsec unmodified, short length 40
   (NOT met: 10 bytes follow) / 10 bytes of an IPv4 header.  LaxSlicedPacket: second MACsec payload
   incomplete, length source Slice, window [30, 40).  LaxPacketHeaders: payload Ether { incomplete: true,
   len_source: MacsecShortLength, the same window }.  Checked on the real crate (harness c04, `eth
   0102030405060708090a0b0c88e500140000000188e5002800000002080045000014000000004011`:
   H pl=ether(2048,macsecsl,1,30+10)  S pl=ether(2048,slice,1,30+10)). *)
Theorem C05_headers_incomplete_src_refuted :
  exists bs w,
    bytes_ok bs /\ lax_stopped_at_ext (LaxCut.from_ethernet true bs) = false /\
    (exists r' h1 p1 h2 e2, LaxSlicedPacket.from_ethernet bs = Ok r' /\
       lv_exts (lview r') = [LVMacsec h1 p1; LVMacsec h2 (LVMpUnmodified e2)] /\
       lvep_incomplete e2 = true /\ lvep_src e2 = LsSlice /\ lvep_win e2 = w) /\
    exists p v e, LaxPacketHeaders.from_ethernet bs = Ok p /\ lhview_of p = Ok v /\
      lhv_net v = None /\ lhv_payload v = LHvpEther e /\
      lvep_incomplete e = true /\ lvep_win e = w /\ win_end w = len bs /\
      lvep_src e = LsMacsecShortLength.
Proof. exact lax_hdr_incomplete_src_refuted. Qed.
Print Assumptions C05_headers_incomplete_src_refuted.

(* non-vacuity: the cut packet of C05_ex_cut (Ethernet II / VLAN / IPv4 announcing 32 bytes with 23 present /
   3 bytes of a UDP header): hypotheses hold; the struct has no transport header and hands out the IP payload
   descriptor flagged incomplete, length source Slice, window [38, 41) ending at the slice end; the enclosing
   slice of the IPv4 layer is (18, 23) and W 20 = 32 > 23.  Second: a single MACsec header whose short length
   is not met: ether payload flagged, Slice *)
Definition ex_macsec_inc : bytes :=
  [1;2;3;4;5;6; 7;8;9;10;11;12; 136;229;  0;40; 0;0;0;2; 8;0;  69;0;0;20; 0;0;0;0; 64;17].
Example C05_ex_headers_incomplete :
  bytes_ok (firstn 41 ex_pkt) /\
  lax_stopped_at_ext (LaxCut.from_ethernet true (firstn 41 ex_pkt)) = false /\
  lhvres_of_h (LaxPacketHeaders.from_ethernet (firstn 41 ex_pkt)) =
    LHOk (mkLHv (Some (HvlEthernet2 (0, 14))) [HvVlan (14, 4)] (Some (HvIpv4 (18, 20) None)) None
                (LHvpIp (mkLVIp true 17 false LsSlice (38, 3)))
                (Some (ELen (mkLenError 8 3 LsSlice LyUdpHeader 38), LyUdpHeader))) /\
  W (firstn 41 ex_pkt) 20 = 32 /\
  bytes_ok ex_macsec_inc /\
  lax_stopped_at_ext (LaxCut.from_ethernet true ex_macsec_inc) = false /\
  lhvres_of_h (LaxPacketHeaders.from_ethernet ex_macsec_inc) =
    LHOk (mkLHv (Some (HvlEthernet2 (0, 14))) [HvMacsec (14, 8)] None None
                (LHvpEther (mkLVEp true 2048 LsSlice (22, 10)))
                (Some (ELen (mkLenError 20 10 LsSlice LyIpv4Header 22), LyIpHeader))).
Proof.
  split; [apply bytes_okb_spec; vm_compute; reflexivity|].
  split; [vm_compute; reflexivity|]. split; [vm_compute; reflexivity|]. split; [vm_compute; reflexivity|].
  split; [apply bytes_okb_spec; vm_compute; reflexivity|].
  vm_compute. repeat split.
Qed.

(* ---- the MACsec short-length FALLBACK with resumed decoding, and
   the WHOLE resumed packet (transport layer included) behind every length fallback ---------------------------
   pwire2_ether answers `P2Rej p e` when a MACsec short length promises more octets than the enclosing data
   holds (C05_lax_prefix / C05_lax_prefix_net: layers in front + `fallback e`, nothing about what lax decodes
   behind that SecTAG).  `pwire3_*` (Parse/LaxWire3.v) is pwire2 with that check instrumented like the two IP
   length checks: `P2Fb p e true resumed`, resumed = the same strict decoder continued on the data that is there
   (MACsec payload up to the end of the enclosing data, length source Slice; unmodified: decoded further with
   its ether type; modified: the packet ends).  The network layer is pwire2_net itself, so IP-length P2Fb's may
   sit inside MACsec ones.  Forgetting the extra information gives pwire / pwire2 / WireSpec back
   (C05_partial_reference3_sound).

   C05_lax_prefix_resumed: strict model = Err e behind the first header  ==>  pwire3 rejects with e_ref (C03/C07
   relation res_rel), the lax model returns Ok r', and `resumed_ok bs pw (lview r')`, by recursion through the
   fallbacks:
     P2Fb q' e' inc resumed : e' is a documented fallback, q' (the layers in front) is a prefix of the lax
                              result, the layer behind q' is flagged -- MACsec: the link extension at index
                              |exts q'| is a MACsec header whose payload has incomplete = inc (= true) and, if
                              unmodified, length source Slice; IP: the network layer has (incomplete,
                              len_source) = (inc, Slice) -- and resumed_ok for `resumed`;
     P2Acc q'               : the resumed strict decoding accepts: strictify (lview r') = q' -- link, all link
                              extensions, network AND TRANSPORT layer of the lax result are exactly those of
                              the resumed strict decoding (windows, numbers, length sources; only the
                              incomplete flags are forgotten) -- and there is no stop error;
     P2RejNet q' n tag e'   : q' prefix, network layer exactly n, stop error exactly (e', tag), no transport;
     P2Rej q' e'            : outside F10: q' prefix (behind a fallback it contains what the resumed decoding
                              decoded, up to and incl. the network layer for a transport fault) and
                              lax_outcome e' (UDP length fallback, or recorded with the same record and a
                              fitting tag, or the F11 group).
   This covers the MACsec short-length fallback (P2Rej) and the `P2Acc q'` arm of net_outcome
   (transport layer after an IP-length fallback).  All byte strings, three entry points (from_ip has no link
   extension: pwire2_from_ip).  Proof: lockstep induction on the link-extension capacity against the lax
   reference decoder lwire (Parse/LaxPrefixResumed.v), transferred to the models by C05_lax_refines_reference /
   C03. *)
From EP Require Import Parse.LaxWire3 Parse.LaxPrefixResumed.

Theorem C05_partial_reference3_sound : forall bs et,
  (to_pres (pwire3_ethernet bs) = pwire_ethernet bs /\
   to_pres (pwire3_ether_type bs et) = pwire_ether_type bs et) /\
  (forget (to_pres (pwire3_ethernet bs)) = wire_ethernet bs /\
   forget (to_pres (pwire3_ether_type bs et)) = wire_ether_type bs et) /\
  (demacsec (pwire3_ethernet bs) = pwire2_ethernet bs /\
   demacsec (pwire3_ether_type bs et) = pwire2_ether_type bs et).
Proof.
  exact (fun bs et => conj (pwire3_is_pwire bs et) (conj (pwire3_sound bs et) (pwire3_is_pwire2 bs et))).
Qed.
Print Assumptions C05_partial_reference3_sound.

Check (eq_refl : demacsec =
  fun pw => match pw with
            | P2Fb p (ELen l) inc r =>
                match le_layer l with LyMacsecPacket => P2Rej p (ELen l) | _ => pw end
            | _ => pw
            end).

Theorem C05_lax_prefix_resumed : forall bs et, bytes_ok bs ->
  (14 <= len bs ->
   prefix_resumed_ok bs (SlicedPacket.from_ethernet bs) (pwire3_ethernet bs)
     (LaxSlicedPacket.from_ethernet bs)) /\
  prefix_resumed_ok bs (SlicedPacket.from_ether_type et bs) (pwire3_ether_type bs et)
    (LaxSlicedPacket.from_ether_type et bs) /\
  (ip_header_fault bs = None ->
   prefix_resumed_ok bs (SlicedPacket.from_ip bs) (pwire2_from_ip bs) (LaxSlicedPacket.from_ip bs)).
Proof. exact lax_prefix_resumed_packet. Qed.
Print Assumptions C05_lax_prefix_resumed.

(* pin the meaning *)
Check (eq_refl : prefix_resumed_ok =
  fun bs strict pw lax => forall e, strict = Err e ->
    exists e_ref r',
      rej2 pw = Some e_ref /\ res_rel (VErr e) (VErr e_ref) /\ lax = Ok r' /\ resumed_ok bs pw (lview r')).
Check (eq_refl : resumed_ok =
  fix f (bs : bytes) (pw : pres2) (q : lvpacket) : Prop :=
    match pw with
    | P2Acc q' => strictify q = q' /\ lv_stop q = None
    | P2Rej q' e' => ~ F10_class bs e' -> vprefix q' (strictify q) /\ lax_outcome e' q
    | P2RejNet q' n tag e' => vprefix q' (strictify q) /\ stopped_in_net q n tag e'
    | P2Fb q' e' inc resumed =>
        fallback e' /\ vprefix q' (strictify q) /\ fb_flagged q' e' inc q /\ f bs resumed q
    | P2Bug _ => False
    end).
Check (eq_refl : fb_flagged =
  fun q' e' inc q =>
    match e' with
    | ELen l =>
        match le_layer l with
        | LyMacsecPacket =>
            exists h mp, nth_error (lv_exts q) (length (v_exts q')) = Some (LVMacsec h mp) /\
              fst (macsec_flags mp) = inc /\
              (snd (macsec_flags mp) = Some LsSlice \/ snd (macsec_flags mp) = None)
        | _ => exists n, lv_net q = Some n /\ net_flags n = Some (inc, LsSlice)
        end
    | EContent _ => False
    end).
Check (eq_refl : macsec_flags =
  fun mp => match mp with
            | LVMpUnmodified e => (lvep_incomplete e, Some (lvep_src e))
            | LVMpModified i _ => (i, None)
            end).

(* non-vacuity 1: Ethernet II / MACsec unmodified, short length 60 (promises 58 octets behind the 8 byte SecTAG,
   28 are there) / complete IPv4 + UDP.  Strict rejects at the short length; pwire2 hands back the Ethernet
   header only; pwire3: fallback, and the resumed decoding ACCEPTS with MACsec (payload [22, 50), Slice), IPv4
   and UDP [42, 50); the lax result, strictified, is exactly that packet; no stop error *)
Definition ex_macsec_fb_udp : bytes :=
  [1;2;3;4;5;6; 7;8;9;10;11;12; 136;229;  0;60; 0;0;0;1; 8;0;
   69;0;0;28; 0;0;0;0; 64;17;0;0; 1;2;3;4; 5;6;7;8;  0;1;0;2;0;8;0;0].
Definition ex_macsec_fb_udp_q : vpacket :=
  mkVPacket (Some (VEthernet2 (0, 50)))
    [VMacsec (14, 8) (VMpUnmodified (mkVEp 2048 LsSlice (22, 28)))]
    (Some (VIpv4 (22, 20) None (mkVIp 17 false LsIpv4HeaderTotalLen (42, 8))))
    (Some (VUdp (42, 8))).
Example C05_ex_resumed_macsec :
  bytes_ok ex_macsec_fb_udp /\ 14 <= len ex_macsec_fb_udp /\
  SlicedPacket.from_ethernet ex_macsec_fb_udp =
    Err (ELen (mkLenError 66 36 LsMacsecShortLength LyMacsecPacket 14)) /\
  pwire2_ethernet ex_macsec_fb_udp =
    P2Rej (mkVPacket (Some (VEthernet2 (0, 50))) [] None None)
          (ELen (mkLenError 66 36 LsSlice LyMacsecPacket 14)) /\
  pwire3_ethernet ex_macsec_fb_udp =
    P2Fb (mkVPacket (Some (VEthernet2 (0, 50))) [] None None)
         (ELen (mkLenError 66 36 LsSlice LyMacsecPacket 14)) true (P2Acc ex_macsec_fb_udp_q) /\
  exists r', LaxSlicedPacket.from_ethernet ex_macsec_fb_udp = Ok r' /\
    strictify (lview r') = ex_macsec_fb_udp_q /\ lsp_stop_err r' = None /\
    lv_exts (lview r') = [LVMacsec (14, 8) (LVMpUnmodified (mkLVEp true 2048 LsSlice (22, 28)))].
Proof.
  split; [apply bytes_okb_spec; vm_compute; reflexivity|].
  split; [vm_compute; discriminate|]. split; [vm_compute; reflexivity|].
  split; [vm_compute; reflexivity|]. split; [vm_compute; reflexivity|].
  eexists. split; [vm_compute; reflexivity|]. split; [reflexivity|]. split; reflexivity.
Qed.

(* non-vacuity 2, nested: MACsec short length not met / IPv4 announcing 100 bytes with 24 present / 4 bytes of
   a TCP header: two fallbacks, then the resumed decoding rejects in the transport layer with the MACsec and
   the IPv4 layer in its prefix; lax: both flagged, stop error = that record on TcpHeader *)
Definition ex_macsec_fb_v4_fb : bytes :=
  [1;2;3;4;5;6; 7;8;9;10;11;12; 136;229;  0;60; 0;0;0;1; 8;0;
   69;0;0;100; 0;0;0;0; 64;6;0;0; 1;2;3;4; 5;6;7;8;  0;1;0;2].
Example C05_ex_resumed_nested :
  bytes_ok ex_macsec_fb_v4_fb /\ 14 <= len ex_macsec_fb_v4_fb /\
  (exists e, SlicedPacket.from_ethernet ex_macsec_fb_v4_fb = Err e) /\
  (exists q0 e0 q1 q2,
     pwire3_ethernet ex_macsec_fb_v4_fb =
       P2Fb q0 e0 true
         (P2Fb q1 (ELen (mkLenError 100 24 LsSlice LyIpv4Packet 22)) true
            (P2Rej q2 (ELen (mkLenError 20 4 LsSlice LyTcpHeader 42)))) /\
     v_exts q1 = [VMacsec (14, 8) (VMpUnmodified (mkVEp 2048 LsSlice (22, 24)))] /\
     v_net q2 = Some (VIpv4 (22, 20) None (mkVIp 6 false LsSlice (42, 4)))) /\
  exists r', LaxSlicedPacket.from_ethernet ex_macsec_fb_v4_fb = Ok r' /\
    lv_exts (lview r') = [LVMacsec (14, 8) (LVMpUnmodified (mkLVEp true 2048 LsSlice (22, 24)))] /\
    lv_net (lview r') = Some (LVIpv4 (22, 20) None (mkLVIp true 6 false LsSlice (42, 4))) /\
    lsp_stop_err r' = Some (ELen (mkLenError 20 4 LsSlice LyTcpHeader 42), LyTcpHeader).
Proof.
  split; [apply bytes_okb_spec; vm_compute; reflexivity|].
  split; [vm_compute; discriminate|]. split; [eexists; vm_compute; reflexivity|].
  split.
  { do 4 eexists. split; [vm_compute; reflexivity|]. split; reflexivity. }
  eexists. split; [vm_compute; reflexivity|]. split; [reflexivity|]. split; reflexivity.
Qed.
