(* Props/C16.v -- property C16: I/O faults and short buffers surface as errors
   without partial garbage.  Each theorem is the named lemma of the
   proof files; the Examples are test vectors checked by evaluation.
   Real OS error kinds are NOT modelled (only Other / WriteZero / UnexpectedEof,
   the kinds the instrumented devices of the harness produce): the property is
   labelled partial for that.

   Besides the writer half:
     - reader half: C16_read_fault / C16_read_fault_ok (every read program),
       C16_readers_fault (the crate's readers)
     - error propagation is part of the interpreters run_w / run_r.  The language
       of IoFault/Propagate.v makes swallowing an error expressible:
       C16_embed, C16_propagating_run, C16_propagating_fault,
       C16_fault_iff_handles, C16_propagating_handles,
       C16_swallowing_writer_refuted, C16_crate_writers_propagate; readers:
       C16_read_embed, C16_read_propagating_run, C16_read_propagating_fault,
       C16_swallowing_reader_refuted.  That a crate function IS the propagating
       program given there is checked by the fault-injection run only.
     - C16_slice_frame: the slice as a window of a larger memory, nothing outside
       it changes on any outcome
     - C16_header_writers_bytes: the two-part writers, parts = C08 models
     - C16_limited_new has the monotonicity conjunct
     - C16_slice_space: `len enc = LEN` is a hypothesis (LEN and layer are
       parameters; that each function uses its own 14 / 16 is checked by the run)
     - C16_builder_write_fault is an instance of C16_write_fault. *)
From EP Require Import Base.Bytes IoFault.Spec IoFault.Model IoFault.Proofs
  IoFault.ReadFault IoFault.Propagate IoFault.SliceFrame IoFault.WriterBytes.
Local Open Scope N_scope.

(* std::io::Write::write_all over the instrumented writer (any budget, any chunk
   size >= 1, error or zero-count when exhausted): delivers min(budget, len)
   bytes, Err iff budget < len, never Panic, never out of fuel. *)
Theorem C16_write_all : forall s buf, 1 <= fs_chunk s ->
  io_write_all s buf =
    (match fst (spec_write_all s buf) with None => ROk | Some k => RIo k end,
     snd (spec_write_all s buf)).
Proof. exact write_all_closed_form. Qed.
Print Assumptions C16_write_all.

(* THE write-fault theorem, for every sequence of `write_all(..)?` calls with any
   final value (the form every `write` of the crate is transliterated to, see
   Model.v; propagation of each error is part of `run_w` - that the crate's
   writers really propagate is C16_crate_writers_propagate below plus the
   fault-injection run): a sink failing at
   byte k < total length gives Err(Io) - not Ok, not Panic, not the content
   verdict - and what was received is exactly the first k bytes of the complete
   encoding; k >= total gives the function's own result and the whole encoding. *)
Theorem C16_write_fault : forall p k chunk zero, 1 <= chunk ->
  let enc := wprog_bytes p in
  let r := run_w io_write_all p (fresh_sink k chunk zero) in
  (k < len enc ->
     fst r = RIo (if zero then KWriteZero else KOther) /\ fs_got (snd r) = take k enc
     /\ is_prefix (fs_got (snd r)) enc) /\
  (len enc <= k -> fst r = ret_of (wprog_verdict p) /\ fs_got (snd r) = enc) /\
  (fst (spec_fault_write enc k) = true <-> len enc <= k) /\
  fs_got (snd r) = snd (spec_fault_write enc k).
Proof. exact write_fault_any. Qed.
Print Assumptions C16_write_fault.

(* the separately coded two-part writers with their parts taken from the
   byte-level model of C08 (Roundtrip/*.v): for every well-formed header value the
   concatenation of the program's write_all calls is the C08 `to_bytes` of that
   header (and C08's `write` appends exactly that). *)
Theorem C16_header_writers_bytes :
  (forall h, I4.wf_ip4 h = true ->
     exists f o e,
       I4.ip4_fixed h (I4.i4_header_checksum h) = Some f /\
       I4.i4o_as_slice (I4.i4_options h) = Some o /\ I4.ip4_to_bytes h = Some e /\
       len f = 20 /\
       wprog_bytes (ipv4_header_write (mk_two f o)) = e /\
       (forall out, I4.ip4_write_raw out h = Some (out ++ e))) /\
  (forall h, AH.wf_ah h = true ->
     exists f icv e,
       AH.ah_fixed h = Some f /\ AH.ah_raw_icv h = Some icv /\ AH.ah_to_bytes h = Some e /\
       len f = 12 /\
       wprog_bytes (ip_auth_header_write (mk_two f icv)) = e /\
       (forall out, AH.ah_write out h = Some (out ++ e))) /\
  (forall h, RX.wf_rx h = true ->
     exists p e,
       RX.rx_payload h = Some p /\ RX.rx_to_bytes h = Some e /\
       wprog_bytes (ipv6_raw_ext_header_write (mk_two [RX.rx_next_header h; RX.rx_header_length h] p)) = e /\
       (forall out, RX.rx_write out h = Some (out ++ e))) /\
  (forall h, T.wf_tcp h = true ->
     exists o e,
       T.opt_as_slice (T.options h) = Some o /\ T.to_bytes h = Some e /\
       len (T.fixed_bytes h) = 20 /\
       wprog_bytes (tcp_header_write (mk_two (T.fixed_bytes h) o)) = e /\
       wprog_verdict (tcp_header_write (mk_two (T.fixed_bytes h) o)) = VOk /\
       (forall out, T.write out h = Some (out ++ e))).
Proof.
  exact (conj ipv4_write_bytes (conj auth_write_bytes (conj raw_ext_write_bytes tcp_write_bytes))).
Qed.
Print Assumptions C16_header_writers_bytes.

(* extension walks, IpHeaders::write and the builder never hit an unwrap() on an
   absent header and never exhaust the loop fuel, for every extension struct,
   every next_header assignment and every first header number *)
Theorem C16_walks_total :
  (forall x first, verdict_ok (wprog_verdict (x6_write_internal x first))) /\
  (forall x start, verdict_ok (wprog_verdict (x4_write_internal x start))) /\
  (forall h proto x, verdict_ok (wprog_verdict (ip_headers_write_v4 h proto x))) /\
  (forall h nh x, verdict_ok (wprog_verdict (ip_headers_write_v6 h nh x))) /\
  (forall c payload, verdict_ok (wprog_verdict (final_write_with_net c payload))).
Proof.
  exact (conj x6_write_internal_verdict (conj x4_write_internal_verdict
    (conj ip_headers_write_v4_verdict (conj ip_headers_write_v6_verdict final_verdict_ok)))).
Qed.
Print Assumptions C16_walks_total.

(* ... and write every extension header at most once: header_len() bounds the
   bytes written and is exact when the walk succeeds *)
Theorem C16_walks_sized :
  (forall x first, exts6_wf x ->
     len (wprog_bytes (x6_write_internal x first)) <= x6_header_len x /\
     (wprog_verdict (x6_write_internal x first) = VOk ->
        len (wprog_bytes (x6_write_internal x first)) = x6_header_len x)) /\
  (forall x start, exts4_wf x ->
     len (wprog_bytes (x4_write_internal x start)) <= x4_header_len x /\
     (wprog_verdict (x4_write_internal x start) = VOk ->
        len (wprog_bytes (x4_write_internal x start)) = x4_header_len x)).
Proof. exact (conj sized_x6 sized_x4). Qed.
Print Assumptions C16_walks_sized.

(* Ethernet2Header / LinuxSllHeader ::write_to_slice, every slice length:
   Ok iff LEN <= n; the error says required_len = LEN (the true length), len = n,
   offset 0; the slice is untouched on error; on success the encoding followed
   by the untouched rest, and the returned rest is [LEN, n) *)
Theorem C16_slice_space : forall LEN layer enc slice, len enc = LEN ->
  (len slice < LEN ->
     header_write_to_slice LEN layer enc slice = (SErr (mk_slice_err LEN (len slice) layer 0), slice)) /\
  (LEN <= len slice ->
     header_write_to_slice LEN layer enc slice = (SOk LEN (len slice - LEN), enc ++ drop LEN slice)) /\
  snd (header_write_to_slice LEN layer enc slice) = snd (spec_slice_write enc slice) /\
  (fst (spec_slice_write enc slice) = None <-> LEN <= len slice).
Proof. exact header_write_to_slice_spec. Qed.
Print Assumptions C16_slice_space.

(* SliceCoreWrite: a part that does not fit leaves buffer and position untouched
   and reports (pos + part length, buffer length); a program that fits writes
   exactly its bytes at [pos, pos + total) and nothing else *)
Theorem C16_slice_writer :
  (forall s b, len (sw_buf s) < sw_pos s + len b ->
     sw_write_all s b = (RIo (mk_space (sw_pos s + len b) (len (sw_buf s))), s)) /\
  (forall p w, sw_pos w + len (wprog_bytes p) <= len (sw_buf w) ->
     run_w sw_write_all p w =
       (ret_of (wprog_verdict p),
        mk_slicew (take (sw_pos w) (sw_buf w) ++ wprog_bytes p
                   ++ drop (sw_pos w + len (wprog_bytes p)) (sw_buf w))
                  (sw_pos w + len (wprog_bytes p)))).
Proof. exact (conj sw_write_short run_slice_fit). Qed.
Print Assumptions C16_slice_writer.

(* builder, write_to_slice: size() is reserved up front.  Too short => Space(size)
   and the buffer is untouched; long enough => the inner SliceCoreWrite can not
   fail (no second, different `required` value is ever reported), the result is
   the walk's own verdict, on Ok exactly `size` bytes = the complete encoding are
   written and everything from `size` on is untouched.
   bcfg_wf: header_len()/LEN of every part equals the length of its to_bytes()
   (checked on the real crate for every case of the correspondence run). *)
Theorem C16_builder_space : forall c buffer payload, bcfg_wf c ->
  let required := final_size c (len payload) in
  let p := final_write_with_net c payload in
  (len buffer < required -> final_write_to_slice c buffer payload = (BSpace required, buffer)) /\
  (required <= len buffer ->
     final_write_to_slice c buffer payload =
       (bres_of required (wprog_verdict p), wprog_bytes p ++ drop (len (wprog_bytes p)) buffer)) /\
  (wprog_verdict p = VOk -> len (wprog_bytes p) = required) /\
  len (wprog_bytes p) <= required /\
  verdict_ok (wprog_verdict p).
Proof. exact final_write_to_slice_spec. Qed.
Print Assumptions C16_builder_space.

(* builder, write(io::Write): instance of C16_write_fault *)
Theorem C16_builder_write_fault : forall c payload k chunk zero, 1 <= chunk ->
  let enc := wprog_bytes (final_write_with_net c payload) in
  let r := builder_write c payload (fresh_sink k chunk zero) in
  (k < len enc ->
     fst r = RIo (if zero then KWriteZero else KOther) /\ fs_got (snd r) = take k enc
     /\ is_prefix (fs_got (snd r)) enc) /\
  (len enc <= k -> fst r = ret_of (wprog_verdict (final_write_with_net c payload)) /\ fs_got (snd r) = enc) /\
  (fst (spec_fault_write enc k) = true <-> len enc <= k) /\
  fs_got (snd r) = snd (spec_fault_write enc k).
Proof. exact builder_write_fault. Qed.
Print Assumptions C16_builder_write_fault.

(* std::io::Read::read_exact over the instrumented reader *)
Theorem C16_read_exact : forall s n, 1 <= src_chunk s ->
  io_read_exact s n =
    (match fst (spec_read_exact s n) with inl bs => XOk bs | inr k => XIo k end,
     snd (spec_read_exact s n)).
Proof. exact read_exact_closed_form. Qed.
Print Assumptions C16_read_exact.

(* LimitedReader, for EVERY read program (any data-dependent sequence of
   read_exact / start_layer calls) started with read_len <= max_len: the usize
   subtractions never underflow, read_len <= max_len still holds at the end, and
   the inner reader has delivered at most max_len - read_len further bytes *)
Theorem C16_limited_reader : forall p s r, 1 <= src_chunk s -> lr_read r <= lr_max r ->
  let st' := snd (run_r p (mk_rstate s (Some r))) in
  fst (run_r p (mk_rstate s (Some r))) <> QUnderflow /\
  (exists r', rs_lim st' = Some r' /\ lr_read r' <= lr_max r') /\
  src_pulled s <= src_pulled (rs_src st') /\
  src_pulled (rs_src st') - src_pulled s <= lr_max r - lr_read r.
Proof. exact limited_pull_bound. Qed.
Print Assumptions C16_limited_reader.

(* a request beyond the budget: the Len error with the fields the code computes,
   reader state and inner reader untouched *)
Theorem C16_limited_len_error : forall r s n, lr_read r <= lr_max r -> lr_max r - lr_read r < n ->
  lr_read_exact r s n =
    (QLen (mk_lenerr (lr_read r + n) (lr_max r) (lr_source r) (lr_layer r) (lr_off r)), r, s).
Proof. exact lr_read_exact_len. Qed.
Print Assumptions C16_limited_len_error.

(* a request within the budget is exactly the inner read_exact *)
Theorem C16_limited_within : forall r s n, 1 <= src_chunk s -> lr_read r <= lr_max r ->
  n <= lr_max r - lr_read r ->
  lr_read_exact r s n =
    if n <=? len (src_data s)
    then (QOk (take n (src_data s)),
          mk_limrd (lr_max r) (lr_source r) (lr_layer r) (lr_off r) (lr_read r + n),
          mk_fsource (drop n (src_data s)) (src_chunk s) (src_err s) (src_pulled s + n))
    else (QIo (src_kind s), r,
          mk_fsource [] (src_chunk s) (src_err s) (src_pulled s + len (src_data s))).
Proof. exact lr_read_exact_within. Qed.
Print Assumptions C16_limited_within.

(* LimitedReader::new inside a plain read (IpHeaders::read): after it at most
   max_len bytes are pulled, whatever the rest of the function does (the count of
   pulled bytes only grows, so the truncated subtraction hides nothing) *)
Theorem C16_limited_new : forall m ls off layer k s, 1 <= src_chunk s ->
  let st' := snd (run_r (PLimit m ls off layer k) (mk_rstate s None)) in
  fst (run_r (PLimit m ls off layer k) (mk_rstate s None)) <> QUnderflow /\
  src_pulled s <= src_pulled (rs_src st') /\
  src_pulled (rs_src st') - src_pulled s <= m.
Proof. exact limit_pull_bound_mono. Qed.
Print Assumptions C16_limited_new.

(* no read program, from no consistent state, underflows *)
Theorem C16_no_underflow : forall p st, st_inv st ->
  fst (run_r p st) <> QUnderflow /\ st_inv (snd (run_r p st)).
Proof. intros p st H. destruct (run_r_inv p st H) as (I1 & I2 & _). exact (conj I1 I2). Qed.
Print Assumptions C16_no_underflow.

(* the crate's readers: for every input and every failure position the result is
   Ok / Io / Len / Content - never an impossible index, fuel exhaustion or underflow *)
Theorem C16_readers_total : forall p s, In p plain_readers -> 1 <= src_chunk s ->
  good (fst (run_r p (mk_rstate s None))).
Proof. exact plain_readers_good. Qed.
Print Assumptions C16_readers_total.

Theorem C16_ext_readers_total : forall (lim : bool) start s r, 1 <= src_chunk s -> lr_read r <= lr_max r ->
  let st := mk_rstate s (if lim then Some r else None) in
  good (fst (run_r (x6_read lim start) st)) /\ good (fst (run_r (x4_read lim start) st)).
Proof. exact ext_readers_good. Qed.
Print Assumptions C16_ext_readers_total.

(* ---- the reader half of the property's first sentence ---- *)

(* THE read-fault theorem, for EVERY read program (any data-dependent sequence of
   `read_exact(..)?` / start_layer / LimitedReader::new), every data d, chunk size
   >= 1, both end-of-data behaviours, plain or inside any LimitedReader state:
   let the run on d consume k bytes with outcome q.  On every source that ends at
   j < k the run answers Err(Io) with the source's error kind - not Ok, not
   Len/Content, no impossible index / fuel / underflow - having consumed exactly
   the j bytes; on every source that ends at j >= k the outcome, the bytes
   consumed and the LimitedReader state are the same (the outcome depends on the
   consumed bytes only). *)
Theorem C16_read_fault : forall p d c e lim, 1 <= c ->
  let r := run_r p (start_st d c e lim) in
  let k := src_pulled (rs_src (snd r)) in
  k <= len d /\ src_data (rs_src (snd r)) = drop k d /\
  (forall j, j < k ->
     let rj := run_r p (start_st (take j d) c e lim) in
     fst rj = QIo (io_kind e) /\ src_pulled (rs_src (snd rj)) = j /\ src_data (rs_src (snd rj)) = []) /\
  (forall j, k <= j ->
     let rj := run_r p (start_st (take j d) c e lim) in
     fst rj = fst r /\ src_pulled (rs_src (snd rj)) = k /\ rs_lim (snd rj) = rs_lim (snd r)
     /\ src_data (rs_src (snd rj)) = drop k (take j d)).
Proof. exact read_fault_any. Qed.
Print Assumptions C16_read_fault.

(* the same in the form of C16_write_fault: a run that succeeds having pulled k
   bytes fails with the reader's error at every earlier end, and still succeeds
   with the same value on exactly those k bytes *)
Theorem C16_read_fault_ok : forall p d c e lim a st', 1 <= c ->
  run_r p (start_st d c e lim) = (QOk a, st') ->
  let k := src_pulled (rs_src st') in
  k <= len d /\ src_data (rs_src st') = drop k d /\
  (forall j, j < k ->
     let rj := run_r p (start_st (take j d) c e lim) in
     fst rj = QIo (io_kind e) /\ src_pulled (rs_src (snd rj)) = j) /\
  (exists st'', run_r p (start_st (take k d) c e lim) = (QOk a, st'')
                /\ src_pulled (rs_src st'') = k /\ src_data (rs_src st'') = [] /\ rs_lim st'' = rs_lim st').
Proof. exact read_fault_ok. Qed.
Print Assumptions C16_read_fault_ok.

(* instantiated for every reader of the crate that is modelled: the 14 plain
   readers (header readers, IpHeaders::read with its LimitedReader inside) and
   Ipv6Extensions / Ipv4Extensions ::read (lim = false) / ::read_limited (lim =
   true, any LimitedReader with read_len <= max_len): for every data and every
   end position j the answer is the reader's I/O error (j inside what the
   fault-free run consumes) or the fault-free answer, which is Ok/Io/Len/Content *)
Theorem C16_readers_fault :
  (forall p d c e j, In p plain_readers -> 1 <= c ->
     let r := run_r p (start_st d c e None) in
     let rj := run_r p (start_st (take j d) c e None) in
     good (fst r) /\
     (j < src_pulled (rs_src (snd r)) -> fst rj = QIo (io_kind e) /\ src_pulled (rs_src (snd rj)) = j) /\
     (src_pulled (rs_src (snd r)) <= j -> fst rj = fst r /\ src_pulled (rs_src (snd rj)) = src_pulled (rs_src (snd r)))) /\
  (forall (lim : bool) start lr d c e j, 1 <= c -> lr_read lr <= lr_max lr ->
     let l := if lim then Some lr else None in
     (let r := run_r (x6_read lim start) (start_st d c e l) in
      let rj := run_r (x6_read lim start) (start_st (take j d) c e l) in
      good (fst r) /\
      (j < src_pulled (rs_src (snd r)) -> fst rj = QIo (io_kind e) /\ src_pulled (rs_src (snd rj)) = j) /\
      (src_pulled (rs_src (snd r)) <= j -> fst rj = fst r /\ src_pulled (rs_src (snd rj)) = src_pulled (rs_src (snd r)))) /\
     (let r := run_r (x4_read lim start) (start_st d c e l) in
      let rj := run_r (x4_read lim start) (start_st (take j d) c e l) in
      good (fst r) /\
      (j < src_pulled (rs_src (snd r)) -> fst rj = QIo (io_kind e) /\ src_pulled (rs_src (snd rj)) = j) /\
      (src_pulled (rs_src (snd r)) <= j -> fst rj = fst r /\ src_pulled (rs_src (snd rj)) = src_pulled (rs_src (snd r))))).
Proof. exact crate_readers_fault. Qed.
Print Assumptions C16_readers_fault.

(* ---- error propagation made expressible (IoFault/Propagate.v) ---- *)

(* the language with an explicit result-handling node `XWriteThen buf k` (k sees
   the Result of write_all) contains the old one: WWrite = `write_all(..)?`, and
   the interpreters agree on every device *)
Theorem C16_embed : forall (W E : Type) (wall : W -> bytes -> wres E * W) p w,
  run_x wall (embed p) w = run_w wall p w.
Proof. exact (@run_x_embed). Qed.
Print Assumptions C16_embed.

(* the propagating fragment (every write_all result is matched with
   `Err(e) => return Err(e)`) runs, on every device, like the write program of
   its success path: every theorem about write programs holds for it *)
Theorem C16_propagating_run : forall (W E : Type) (wall : W -> bytes -> wres E * W) (p : xprog E),
  propagating p -> forall w, run_x wall p w = run_w wall (strip p) w.
Proof. exact (@run_x_strip). Qed.
Print Assumptions C16_propagating_run.

(* ... in particular the fault theorem *)
Theorem C16_propagating_fault : forall (p : xprog iokind) k chunk zero, propagating p -> 1 <= chunk ->
  let enc := wprog_bytes (strip p) in
  let r := run_x io_write_all p (fresh_sink k chunk zero) in
  (k < len enc ->
     fst r = RIo (if zero then KWriteZero else KOther) /\ fs_got (snd r) = take k enc
     /\ is_prefix (fs_got (snd r)) enc) /\
  (len enc <= k -> fst r = ret_of (wprog_verdict (strip p)) /\ fs_got (snd r) = enc) /\
  (fst (spec_fault_write enc k) = true <-> len enc <= k) /\
  fs_got (snd r) = snd (spec_fault_write enc k).
Proof. exact propagating_fault. Qed.
Print Assumptions C16_propagating_fault.

(* exactly which programs have the fault property on the fail-stop sink: those in
   which, after every write that can fail, the error branch ends in
   Err(Io(that kind)) (`handles`); the propagating ones are among them *)
Theorem C16_fault_iff_handles : forall p : xprog iokind, fault_ok p <-> handles p.
Proof. exact fault_iff_handles. Qed.
Print Assumptions C16_fault_iff_handles.

Theorem C16_propagating_handles : forall p : xprog iokind, propagating p -> handles p.
Proof. exact propagating_handles. Qed.
Print Assumptions C16_propagating_handles.

(* NOT a defect of the crate: a program that swallows an error (mutant 1 of
   notes/C16.md, TcpHeader::write with `let _ = writer.write_all(options);`) is
   expressible and violates the fault property - Ok although the sink failed at
   byte 21 of 24 *)
Theorem C16_swallowing_writer_refuted :
  ~ fault_ok (swallowing_tcp_write ex_tcp) /\
  run_x io_write_all (swallowing_tcp_write ex_tcp) (fresh_sink 21 3 false)
    = (ROk, mk_fsink 0 3 false (repeat 1 20 ++ [2])) /\
  len (xprog_bytes (swallowing_tcp_write ex_tcp)) = 24.
Proof. exact swallow_refuted. Qed.
Print Assumptions C16_swallowing_writer_refuted.

(* the crate's writers as written in the Rust source (`writer.write_all(..)?`,
   `.map_err(WriteError::Io)?`, `.map_err(E::from)?`, a returned Result), for
   every error type of the writer: each is in the propagating fragment and its
   success path is the Model.v transliteration the other theorems are about *)
Theorem C16_crate_writers_propagate : forall E : Type,
  (forall b, @agrees E (x_single_write b) (single_write b)) /\
  (forall h, @agrees E (x_ipv4_header_write h) (ipv4_header_write h) /\
             @agrees E (x_ip_auth_header_write h) (ip_auth_header_write h) /\
             @agrees E (x_ipv6_raw_ext_header_write h) (ipv6_raw_ext_header_write h) /\
             @agrees E (x_tcp_header_write h) (tcp_header_write h)) /\
  (forall x start, @agrees E (x_x4_write_internal x start) (x4_write_internal x start)) /\
  (forall x first, @agrees E (x_x6_write_internal x first) (x6_write_internal x first)) /\
  (forall h proto x, @agrees E (x_ip_headers_write_v4 h proto x) (ip_headers_write_v4 h proto x)) /\
  (forall h nh x, @agrees E (x_ip_headers_write_v6 h nh x) (ip_headers_write_v6 h nh x)) /\
  (forall c payload, @agrees E (x_final_write_with_net c payload) (final_write_with_net c payload)).
Proof. exact crate_writers_propagate. Qed.
Print Assumptions C16_crate_writers_propagate.

(* readers: YReadThen n k (k sees Ok(bytes) / Err(Io) / Err(Len)); PRead =
   `read_exact(..)?`; interpreters agree; the propagating fragment runs like its
   success path and so has the read-fault property *)
Theorem C16_read_embed : forall p st, run_y (embed_r p) st = run_r p st.
Proof. exact run_y_embed. Qed.
Print Assumptions C16_read_embed.

Theorem C16_read_propagating_run : forall p, propagating_r p -> forall st, run_y p st = run_r (strip_r p) st.
Proof. exact run_y_strip. Qed.
Print Assumptions C16_read_propagating_run.

Theorem C16_read_propagating_fault : forall p d c e lim, propagating_r p -> 1 <= c ->
  let r := run_y p (start_st d c e lim) in
  let k := src_pulled (rs_src (snd r)) in
  k <= len d /\
  (forall j, j < k ->
     let rj := run_y p (start_st (take j d) c e lim) in
     fst rj = QIo (io_kind e) /\ src_pulled (rs_src (snd rj)) = j) /\
  (forall j, k <= j ->
     let rj := run_y p (start_st (take j d) c e lim) in
     fst rj = fst r /\ src_pulled (rs_src (snd rj)) = k).
Proof. exact propagating_read_fault. Qed.
Print Assumptions C16_read_propagating_fault.

(* NOT a defect of the crate: seeded defect C16_3 (IpHeaders::read drops the error
   of its second read_exact) is expressible, is outside the fragment and reports
   success on a source that ended after 5 of 20 bytes *)
Theorem C16_swallowing_reader_refuted :
  ~ propagating_r swallowing_ip_headers_read /\
  (let r := run_y swallowing_ip_headers_read (start_st (repeat 69 20) 3 false None) in
   fst r = QOk [20] /\ src_pulled (rs_src (snd r)) = 20) /\
  (let r := run_y swallowing_ip_headers_read (start_st (take 5 (repeat 69 20)) 3 false None) in
   fst r = QOk [20] /\ src_pulled (rs_src (snd r)) = 5).
Proof. exact swallow_read_refuted. Qed.
Print Assumptions C16_swallowing_reader_refuted.

(* ---- "never writes outside the given slice" (IoFault/SliceFrame.v) ---- *)

(* the slice is the window [off, off+n) of a flat memory; what a function returns
   as new slice contents is laid down from `off` on.  For write_to_slice of the
   two headers, for every write program and every explicit program (also one that
   swallows errors) over SliceCoreWrite, and for the builder's write_to_slice:
   on EVERY outcome (Ok, space error, content error, modelled panic) the memory
   keeps its length, everything before `off` and everything from off+n on is
   unchanged; on a space error of the header functions / of the builder's up-front
   check the whole memory is unchanged.  No hypothesis on LEN, encodings or cfg. *)
Theorem C16_slice_frame : forall mem off n, off + n <= len mem ->
  let win := window mem off n in
  (forall LEN layer enc,
     let r := header_write_to_slice LEN layer enc win in
     untouched_outside mem (place mem off (snd r)) off n /\
     window (place mem off (snd r)) off n = snd r /\
     (match fst r with SOk _ _ => True | _ => place mem off (snd r) = mem end)) /\
  (forall p pos,
     let r := run_w sw_write_all p (mk_slicew win pos) in
     untouched_outside mem (place mem off (sw_buf (snd r))) off n) /\
  (forall (p : xprog space_req) pos,
     let r := run_x sw_write_all p (mk_slicew win pos) in
     untouched_outside mem (place mem off (sw_buf (snd r))) off n) /\
  (forall c payload,
     let r := final_write_to_slice c win payload in
     untouched_outside mem (place mem off (snd r)) off n /\
     window (place mem off (snd r)) off n = snd r /\
     (n < final_size c (len payload) -> fst r = BSpace (final_size c (len payload)) /\ place mem off (snd r) = mem)).
Proof. exact slice_frame. Qed.
Print Assumptions C16_slice_frame.

(* ---- non-vacuity *)
Definition ex_hop := mk_ext 60 8 [60; 0; 1; 2; 3; 4; 5; 6].
Definition ex_dest := mk_ext 43 8 [43; 0; 7; 7; 7; 7; 7; 7].
Definition ex_route := mk_ext 60 8 [60; 0; 9; 9; 9; 9; 9; 9].
Definition ex_final := mk_ext 17 8 [17; 0; 8; 8; 8; 8; 8; 8].
Definition ex_x6 := mk_exts6 (Some ex_hop) (Some ex_dest) (Some (ex_route, Some ex_final)) None None.

(* a 4-header chain into a sink that fails at byte 19 (inside the third header) *)
Example C16_ex_write_fault :
  run_w io_write_all (x6_write_internal ex_x6 0) (fresh_sink 19 3 false)
  = (RIo KOther, mk_fsink 0 3 false
       [60; 0; 1; 2; 3; 4; 5; 6; 43; 0; 7; 7; 7; 7; 7; 7; 60; 0; 9])
  /\ len (wprog_bytes (x6_write_internal ex_x6 0)) = 32
  /\ wprog_verdict (x6_write_internal ex_x6 0) = VOk.
Proof. vm_compute. repeat split. Qed.

(* a chain whose routing header is not referenced: content error after 16 bytes *)
Example C16_ex_not_referenced :
  wprog_verdict (x6_write_internal
     (mk_exts6 (Some ex_hop) (Some (mk_ext 17 8 (e_enc ex_dest))) (Some (ex_route, None)) None None) 0)
  = VContent (CNotReferenced 43).
Proof. vm_compute; reflexivity. Qed.

Definition ex_cfg := mk_bcfg (Some (mk_part 14 [1;2;3;4;5;6;7;8;9;10;11;12;134;221]))
  [mk_part 4 [0;1;134;221]]
  (BIpv6 (mk_part 40 (repeat 6 40)) 0 ex_x6) None None (Some (mk_part 8 [0;1;0;2;0;10;0;0])).

Example C16_ex_builder_wf : bcfg_wf ex_cfg /\ final_size ex_cfg 2 = 100.
Proof.
  split; [|vm_compute; reflexivity].
  unfold bcfg_wf, ex_cfg. cbn. repeat split; try reflexivity. repeat constructor.
Qed.

Example C16_ex_builder_short :
  fst (final_write_to_slice ex_cfg (repeat 255 99) [7; 7]) = BSpace 100
  /\ fst (final_write_to_slice ex_cfg (repeat 255 101) [7; 7]) = BOk 100
  /\ drop 100 (snd (final_write_to_slice ex_cfg (repeat 255 101) [7; 7])) = [255].
Proof. vm_compute. repeat split. Qed.

Example C16_ex_slice : header_write_to_slice 14 L_ETH (repeat 1 14) (repeat 255 13)
  = (SErr (mk_slice_err 14 13 L_ETH 0), repeat 255 13).
Proof. vm_compute; reflexivity. Qed.

(* IPv6 header with payload length 8 followed by a hop-by-hop header of 16 bytes:
   the LimitedReader refuses the second read_exact with required_len 16, len 8,
   offset 40 and has pulled 42 bytes, 2 of them beyond the IPv6 header *)
Definition ex_v6 : bytes :=
  [96;0;0;0; 0;8; 0; 64] ++ repeat 1 16 ++ repeat 2 16 ++ [17; 1] ++ repeat 0 14.
Example C16_ex_limited :
  let r := run_r ip_headers_read (mk_rstate (mk_fsource ex_v6 5 false 0) None) in
  fst r = QLen (mk_lenerr 16 8 LS_IPV6_PAYLOAD L_IPV6EXT 40) /\ src_pulled (rs_src (snd r)) = 42.
Proof. vm_compute. repeat split. Qed.

Example C16_ex_reader_in : In ip_headers_read plain_readers.
Proof. cbn. tauto. Qed.

(* ---- examples *)

(* Ipv4Header::read, ihl = 6 (24 bytes): succeeds having pulled 24; a source that
   ends after 21 bytes (inside the options) gives UnexpectedEof having pulled 21 *)
Definition ex_v4h : bytes := [70; 0; 0; 24; 0; 0; 0; 0; 64; 17; 0; 0] ++ repeat 10 8 ++ [1; 1; 1; 0; 9; 9].
Example C16_ex_read_fault :
  (let r := run_r ipv4_header_read (start_st ex_v4h 5 false None) in
   fst r = QOk [24] /\ src_pulled (rs_src (snd r)) = 24 /\ src_data (rs_src (snd r)) = [9; 9]) /\
  (let r := run_r ipv4_header_read (start_st (take 21 ex_v4h) 5 false None) in
   fst r = QIo KEof /\ src_pulled (rs_src (snd r)) = 21) /\
  (let r := run_r ipv4_header_read (start_st (take 21 ex_v4h) 5 true None) in
   fst r = QIo KOther /\ src_pulled (rs_src (snd r)) = 21).
Proof. vm_compute. repeat split. Qed.

(* IpHeaders::read over IPv6 + hop-by-hop (8) + fragment (8), payload length 16:
   56 bytes pulled; cut inside the fragment header (52): UnexpectedEof *)
Definition ex_v6chain : bytes :=
  [96;0;0;0; 0;16; 0; 64] ++ repeat 1 16 ++ repeat 2 16 ++ [44; 0; 1; 2; 3; 4; 5; 6] ++ [17; 0; 0; 0; 0; 0; 0; 1] ++ [7; 7; 7].
Example C16_ex_read_fault_ip :
  In ip_headers_read plain_readers /\
  (let r := run_r ip_headers_read (start_st ex_v6chain 7 false None) in
   fst r = QOk [17; 17] /\ src_pulled (rs_src (snd r)) = 56) /\
  (let r := run_r ip_headers_read (start_st (take 52 ex_v6chain) 7 false None) in
   fst r = QIo KEof /\ src_pulled (rs_src (snd r)) = 52) /\
  (let r := run_r ip_headers_read (start_st (take 56 ex_v6chain) 7 false None) in
   fst r = QOk [17; 17] /\ src_pulled (rs_src (snd r)) = 56).
Proof. split; [cbn; tauto|]. vm_compute. repeat split. Qed.

(* the propagating TcpHeader::write on the input of the refuting witness: Err *)
Example C16_ex_propagating_tcp :
  propagating (@x_tcp_header_write iokind ex_tcp) /\
  strip (@x_tcp_header_write iokind ex_tcp) = tcp_header_write ex_tcp /\
  run_x io_write_all (x_tcp_header_write ex_tcp) (fresh_sink 21 3 false)
    = (RIo KOther, mk_fsink 0 3 false (repeat 1 20 ++ [2])).
Proof.
  split; [|split; [reflexivity | vm_compute; reflexivity]].
  apply (C16_crate_writers_propagate iokind).
Qed.

(* a well-formed TCP header with 4 option bytes: the C08 encoding has 24 bytes and
   is what the two write_all calls of the C16 program deliver *)
Definition ex_tcp_hdr : T.TcpHeader :=
  T.Build_TcpHeader 80 443 1 2 false false true false false true false false false 1024 0 0
    (T.Build_TcpOptions 4 ([2; 4; 5; 180] ++ repeat 0 36)).
Example C16_ex_tcp_bytes :
  T.wf_tcp ex_tcp_hdr = true /\
  T.opt_as_slice (T.options ex_tcp_hdr) = Some [2; 4; 5; 180] /\
  T.to_bytes ex_tcp_hdr
    = Some (wprog_bytes (tcp_header_write (mk_two (T.fixed_bytes ex_tcp_hdr) [2; 4; 5; 180]))) /\
  len (wprog_bytes (tcp_header_write (mk_two (T.fixed_bytes ex_tcp_hdr) [2; 4; 5; 180]))) = 24.
Proof. vm_compute. repeat split. Qed.

(* an Ethernet header written into the window [2,17) of a 20-byte memory (one byte
   of slack inside the window): the 2 bytes before, the slack byte and the 3
   bytes behind keep their values; a 13-byte window: nothing changes at all *)
Example C16_ex_slice_frame :
  let mem := [8; 8] ++ repeat 255 15 ++ [9; 9; 9] in
  place mem 2 (snd (header_write_to_slice 14 L_ETH (repeat 1 14) (window mem 2 15)))
    = [8; 8] ++ repeat 1 14 ++ [255] ++ [9; 9; 9] /\
  place mem 2 (snd (header_write_to_slice 14 L_ETH (repeat 1 14) (window mem 2 13))) = mem.
Proof. vm_compute. repeat split. Qed.

(* what would be a violation is expressible: contents one byte longer than the
   window overwrite the byte behind it *)
Example C16_ex_overrun_visible :
  let mem := [9; 9; 1; 2; 3; 7; 7] in
  window mem 2 3 = [1; 2; 3] /\
  place mem 2 [4; 5; 6] = [9; 9; 4; 5; 6; 7; 7] /\
  place mem 2 [4; 5; 6; 0] = [9; 9; 4; 5; 6; 0; 7] /\
  ~ untouched_outside mem (place mem 2 [4; 5; 6; 0]) 2 3.
Proof. exact place_overrun_visible. Qed.

(* ---- the crate's READERS in the explicit
   error-propagation language (IoFault/ReadPropagate.v), and the two hypotheses
   of the "length really required" clause discharged (IoFault/SpaceLen.v) ---- *)
From EP Require Import IoFault.ReadPropagate IoFault.SpaceLen.

(* read programs contain functions (`PRead n k`); `req` is their pointwise
   equality (no functional extensionality is assumed anywhere): an equivalence
   that run_r respects on every state *)
Theorem C16_req_run :
  (forall p, req p p) /\ (forall p q, req p q -> req q p) /\
  (forall p q r, req p q -> req q r -> req p r) /\
  (forall p q, req p q -> forall st, run_r p st = run_r q st).
Proof. exact req_equiv_run. Qed.
Print Assumptions C16_req_run.

(* agrees_r y p = y is in the propagating fragment and its success path is
   (pointwise) p: then the explicit interpreter run_y, which hands every Result
   of read_exact to the program, runs y like run_r runs p - plain source or any
   LimitedReader state *)
Theorem C16_agrees_r_run : forall y p, agrees_r y p -> forall st, run_y y st = run_r p st.
Proof. exact agrees_r_run. Qed.
Print Assumptions C16_agrees_r_run.

(* a call `Callee::read(reader).map_err(f)?; k` (ycall: the caller sees the
   callee's Result - Ok(value) / Err(Io) / Err(Len) / Err(Content)): if the callee
   propagates, the closure f keeps every error what it is and the continuation
   propagates, the whole does, and its success path is the callee's with k at
   the Ok leaves *)
Theorem C16_call_propagates : forall a f k, propagating_r a -> m_ok f ->
  (forall v, propagating_r (k v)) ->
  propagating_r (ycall a (yq_call f k)) /\
  req (strip_r (ycall a (yq_call f k))) (rcall (strip_r a) (fun v => strip_r (k v))).
Proof. exact call_propagates. Qed.
Print Assumptions C16_call_propagates.

(* THE reader analogue of C16_crate_writers_propagate: every `read` /
   `read_limited` of the crate written as the Rust source writes it - each
   `reader.read_exact(..)?` / `.map_err(Io)?` / `.map_err(map_err)?` a YReadThen
   whose continuation matches on the Result with the map_err closure as program
   text, each call of another reader a `ycall` with its own match - is in the
   propagating fragment and its success path is the Model.v transliteration the
   other theorems are about: the 14 plain readers (in the order of
   plain_readers), IpAuthHeader / Ipv6RawExtHeader / Ipv6FragmentHeader ::read
   (lim = false) and ::read_limited (lim = true), Ipv6Extensions /
   Ipv4Extensions ::read and ::read_limited *)
Theorem C16_crate_readers_propagate :
  Forall2 agrees_r y_plain_readers plain_readers /\
  (forall lim,
     agrees_r (y_ip_auth_read lim) (ip_auth_read lim (fun nh => PRet [nh])) /\
     agrees_r (y_ipv6_raw_ext_read lim) (ipv6_raw_ext_read lim (fun nh => PRet [nh])) /\
     agrees_r (y_ipv6_frag_read lim) (ipv6_frag_read lim (fun nh => PRet [nh]))) /\
  (forall lim start,
     agrees_r (y_x6_read lim start) (x6_read lim start) /\
     agrees_r (y_x4_read lim start) (x4_read lim start)).
Proof. exact crate_readers_propagate. Qed.
Print Assumptions C16_crate_readers_propagate.

(* hence "the operation returns that I/O error", as a theorem about the explicit
   programs under run_y (C16_readers_fault was about run_r, where `?` is built
   in): for every data, chunk size, end behaviour and end position j the
   explicit reader answers the reader's I/O error after exactly j bytes (j inside
   what the fault-free run consumes) or the fault-free answer, which is never an
   impossible index / fuel / underflow *)
Theorem C16_crate_readers_explicit_fault :
  (forall y d c e j, In y y_plain_readers -> 1 <= c ->
     let r := run_y y (start_st d c e None) in
     let rj := run_y y (start_st (take j d) c e None) in
     good (fst r) /\
     (j < src_pulled (rs_src (snd r)) -> fst rj = QIo (io_kind e) /\ src_pulled (rs_src (snd rj)) = j) /\
     (src_pulled (rs_src (snd r)) <= j -> fst rj = fst r /\ src_pulled (rs_src (snd rj)) = src_pulled (rs_src (snd r)))) /\
  (forall (lim : bool) start lr d c e j, 1 <= c -> lr_read lr <= lr_max lr ->
     let l := if lim then Some lr else None in
     (let r := run_y (y_x6_read lim start) (start_st d c e l) in
      let rj := run_y (y_x6_read lim start) (start_st (take j d) c e l) in
      good (fst r) /\
      (j < src_pulled (rs_src (snd r)) -> fst rj = QIo (io_kind e) /\ src_pulled (rs_src (snd rj)) = j) /\
      (src_pulled (rs_src (snd r)) <= j -> fst rj = fst r /\ src_pulled (rs_src (snd rj)) = src_pulled (rs_src (snd r)))) /\
     (let r := run_y (y_x4_read lim start) (start_st d c e l) in
      let rj := run_y (y_x4_read lim start) (start_st (take j d) c e l) in
      good (fst r) /\
      (j < src_pulled (rs_src (snd r)) -> fst rj = QIo (io_kind e) /\ src_pulled (rs_src (snd rj)) = j) /\
      (src_pulled (rs_src (snd r)) <= j -> fst rj = fst r /\ src_pulled (rs_src (snd rj)) = src_pulled (rs_src (snd r))))).
Proof. exact crate_readers_explicit_fault. Qed.
Print Assumptions C16_crate_readers_explicit_fault.

(* NOT a defect of the crate: a CALLER that swallows its callee's error
   (Ipv4Extensions::read with `Err(_) => Ok((Default::default(), start_ip_number))`
   around IpAuthHeader::read, whose own read_exact calls all propagate) is
   expressible, is outside the fragment and answers Ok on a source that ended
   after 14 of the 16 bytes; the crate's form answers UnexpectedEof *)
Theorem C16_swallowing_call_refuted :
  ~ propagating_r (swallowing_x4_read AUTH) /\
  propagating_r (y_x4_read false AUTH) /\
  (let r := run_y (swallowing_x4_read AUTH) (start_st ex_auth 3 false None) in
   fst r = QOk [6; 1] /\ src_pulled (rs_src (snd r)) = 16) /\
  (let r := run_y (swallowing_x4_read AUTH) (start_st (take 14 ex_auth) 3 false None) in
   fst r = QOk [AUTH; 0] /\ src_pulled (rs_src (snd r)) = 14) /\
  (let r := run_y (y_x4_read false AUTH) (start_st (take 14 ex_auth) 3 false None) in
   fst r = QIo KEof /\ src_pulled (rs_src (snd r)) = 14).
Proof. exact swallow_call_refuted. Qed.
Print Assumptions C16_swallowing_call_refuted.

(* C16_slice_space without its hypothesis `len enc = LEN`:
   Ethernet2Header::write_to_slice (LEN = 14) and LinuxSllHeader::write_to_slice
   (LEN = 16) with the C08 encoders, for every header value whose address arrays
   have their type's length ([u8;6] x2 / [u8;8]; implied by wf_eth / wf_sll): the
   encoding has exactly LEN bytes, so Ok iff the slice has LEN bytes, the error
   names LEN = the length really required and leaves the slice untouched; the C08
   model of the same Rust function agrees *)
Theorem C16_eth_write_to_slice : forall h slice, eth_arrays h ->
  let enc := ETH.eth_to_bytes h in
  len enc = 14 /\
  (len slice < 14 ->
     header_write_to_slice 14 L_ETH enc slice = (SErr (mk_slice_err 14 (len slice) L_ETH 0), slice)) /\
  (14 <= len slice ->
     header_write_to_slice 14 L_ETH enc slice = (SOk 14 (len slice - 14), enc ++ drop 14 slice)) /\
  snd (header_write_to_slice 14 L_ETH enc slice) = snd (spec_slice_write enc slice) /\
  (fst (spec_slice_write enc slice) = None <-> 14 <= len slice) /\
  (len slice < 14 -> ETH.eth_write_to_slice slice h = RC.Err RC.ELen) /\
  (14 <= len slice ->
     ETH.eth_write_to_slice slice h = RC.Ok (snd (header_write_to_slice 14 L_ETH enc slice), drop 14 slice)).
Proof. exact eth_write_to_slice_space. Qed.
Print Assumptions C16_eth_write_to_slice.

Theorem C16_sll_write_to_slice : forall h slice, sll_arrays h ->
  let enc := SLL.sll_to_bytes h in
  len enc = 16 /\
  (len slice < 16 ->
     header_write_to_slice 16 L_SLL enc slice = (SErr (mk_slice_err 16 (len slice) L_SLL 0), slice)) /\
  (16 <= len slice ->
     header_write_to_slice 16 L_SLL enc slice = (SOk 16 (len slice - 16), enc ++ drop 16 slice)) /\
  snd (header_write_to_slice 16 L_SLL enc slice) = snd (spec_slice_write enc slice) /\
  (fst (spec_slice_write enc slice) = None <-> 16 <= len slice) /\
  (len slice < 16 -> SLL.sll_write_to_slice slice h = RC.Err RC.ELen) /\
  (16 <= len slice ->
     SLL.sll_write_to_slice slice h = RC.Ok (snd (header_write_to_slice 16 L_SLL enc slice), drop 16 slice)).
Proof. exact sll_write_to_slice_space. Qed.
Print Assumptions C16_sll_write_to_slice.

Theorem C16_wf_implies_arrays :
  (forall h, ETH.wf_eth h = true -> eth_arrays h) /\ (forall h, SLL.wf_sll h = true -> sll_arrays h).
Proof. exact (conj wf_eth_arrays wf_sll_arrays). Qed.
Print Assumptions C16_wf_implies_arrays.

(* C16_builder_space without its hypothesis `bcfg_wf`: for EVERY builder
   configuration c (Builder/Model.v), host endianness, payload and buffer, the
   C16 configuration `bcfg_of e c payload` (parts = the encoders of C08 / C12 /
   C15) satisfies bcfg_wf (re-export of Builder/ProofsSinks.v bcfg_of_wf), hence:
   too short => Space(size), buffer untouched; long enough => the walk's own
   verdict, on Ok exactly `size` bytes.  For a well-formed configuration (cfg_wf
   = the type invariants of the crate's structs) `size` is the builder model's
   final_size and the bytes / verdict are those of build_run. *)
Theorem C16_builder_space_cfg : forall (e : EP.Checksum.Model.endian) (c : BM.cfg) (payload buffer : bytes),
  let b := BK.bcfg_of e c payload in
  let required := final_size b (len payload) in
  let p := final_write_with_net b payload in
  bcfg_wf b /\
  (len buffer < required -> final_write_to_slice b buffer payload = (BSpace required, buffer)) /\
  (required <= len buffer ->
     final_write_to_slice b buffer payload =
       (bres_of required (wprog_verdict p), wprog_bytes p ++ drop (len (wprog_bytes p)) buffer)) /\
  (wprog_verdict p = VOk -> len (wprog_bytes p) = required) /\
  len (wprog_bytes p) <= required /\
  verdict_ok (wprog_verdict p) /\
  (BSP.cfg_wf c = true ->
     required = BM.final_size c (len payload) /\
     wprog_bytes p = snd (BM.build_run e c payload) /\
     wprog_verdict p = BK.verdict_of (fst (BM.build_run e c payload))).
Proof. exact builder_space_cfg. Qed.
Print Assumptions C16_builder_space_cfg.

(* ---- examples *)

(* the explicit IpHeaders::read (a YReadThen per read_exact, two ycall nodes:
   Ipv6Header::read_without_version and Ipv6Extensions::read_limited, inside it
   the calls of Ipv6RawExtHeader / Ipv6FragmentHeader ::read_limited) on the IPv6
   chain of C16_ex_read_fault_ip: Ok after 56 bytes; a source that ends after 52
   bytes gives UnexpectedEof / the reader's error after exactly 52 bytes *)
Example C16_ex_explicit_ip_headers :
  In y_ip_headers_read y_plain_readers /\
  (let r := run_y y_ip_headers_read (start_st ex_v6chain 7 false None) in
   fst r = QOk [17; 17] /\ src_pulled (rs_src (snd r)) = 56) /\
  (let r := run_y y_ip_headers_read (start_st (take 52 ex_v6chain) 7 false None) in
   fst r = QIo KEof /\ src_pulled (rs_src (snd r)) = 52) /\
  (let r := run_y y_ip_headers_read (start_st (take 52 ex_v6chain) 7 true None) in
   fst r = QIo KOther /\ src_pulled (rs_src (snd r)) = 52).
Proof. split; [cbn; tauto|]. vm_compute. repeat split. Qed.

(* the Len error of the LimitedReader reaches the caller of the explicit program
   as the Len error (C16_ex_limited through run_y) *)
Example C16_ex_explicit_limited :
  let r := run_y y_ip_headers_read (mk_rstate (mk_fsource ex_v6 5 false 0) None) in
  fst r = QLen (mk_lenerr 16 8 LS_IPV6_PAYLOAD L_IPV6EXT 40) /\ src_pulled (rs_src (snd r)) = 42.
Proof. vm_compute. repeat split. Qed.

Definition ex_eth_hdr : ETH.Ethernet2Header :=
  ETH.Build_Ethernet2Header [1; 2; 3; 4; 5; 6] [7; 8; 9; 10; 11; 12] 2048.
Example C16_ex_eth_slice :
  ETH.wf_eth ex_eth_hdr = true /\ eth_arrays ex_eth_hdr /\
  header_write_to_slice 14 L_ETH (ETH.eth_to_bytes ex_eth_hdr) (repeat 255 13)
    = (SErr (mk_slice_err 14 13 L_ETH 0), repeat 255 13) /\
  header_write_to_slice 14 L_ETH (ETH.eth_to_bytes ex_eth_hdr) (repeat 255 15)
    = (SOk 14 1, [7; 8; 9; 10; 11; 12; 1; 2; 3; 4; 5; 6; 8; 0; 255]).
Proof. vm_compute. repeat split. Qed.

Definition ex_sll_hdr : SLL.LinuxSllHeader :=
  SLL.Build_LinuxSllHeader 4 1 6 [1; 2; 3; 4; 5; 6; 0; 0] (SLL.SllEtherType 2048).
Example C16_ex_sll_slice :
  SLL.wf_sll ex_sll_hdr = true /\ sll_arrays ex_sll_hdr /\
  header_write_to_slice 16 L_SLL (SLL.sll_to_bytes ex_sll_hdr) (repeat 255 15)
    = (SErr (mk_slice_err 16 15 L_SLL 0), repeat 255 15) /\
  fst (header_write_to_slice 16 L_SLL (SLL.sll_to_bytes ex_sll_hdr) (repeat 255 16)) = SOk 16 0.
Proof. vm_compute. repeat split. Qed.

(* the hypothesis of C16_slice_space was needed in the parametric model: an
   encoding of another length is the copy_from_slice panic, not a space error *)
Example C16_ex_slice_len_needed :
  header_write_to_slice 14 L_ETH (repeat 1 13) (repeat 255 20) = (SPanic, repeat 255 20).
Proof. exact slice_len_hyp_needed. Qed.

(* the crate's documentation example (ethernet2 / ipv4 / udp, 8 byte payload):
   well-formed, size() = 50; 49 bytes => Space(50) and nothing written *)
Example C16_ex_builder_cfg :
  BSP.cfg_wf ex_b_cfg = true /\
  final_size (BK.bcfg_of EP.Checksum.Model.LE ex_b_cfg ex_b_payload) 8 = 50 /\
  final_write_to_slice (BK.bcfg_of EP.Checksum.Model.LE ex_b_cfg ex_b_payload) (repeat 255 49) ex_b_payload
    = (BSpace 50, repeat 255 49) /\
  fst (final_write_to_slice (BK.bcfg_of EP.Checksum.Model.LE ex_b_cfg ex_b_payload) (repeat 255 51) ex_b_payload)
    = BOk 50.
Proof. vm_compute. repeat split. Qed.
