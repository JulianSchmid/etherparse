(* Props/C12.v -- property C12: extension-header chain bookkeeping is
   self-consistent.  Each theorem is the named lemma of ExtChain/*.v; the
   Examples are concrete header sets checked by evaluation.

   State space: the record of six optional headers (Exts6: hop-by-hop,
   destination options, routing{+ final destination options}, fragment,
   auth) with ARBITRARY next_header contents, arbitrary payload / ICV sizes
   (every multiple the header formats allow) and an arbitrary first-header
   value.  `exts6_valid` is the type invariant of the Rust structs (u8/u13/u32
   ranges, payload length = what the private length field says).  *)
From EP Require Parse.ConstsAllOk.   (* every numeric `pub const` of the crate, regenerated from the source on every run, has its RFC / IANA value *)
From EP Require Import Base.Bytes ExtChain.Spec ExtChain.Model ExtChain.View ExtChain.Proofs.
Local Open Scope N_scope.

(* ------------------------------------------------------------------ *)
(* Ipv6Extensions *)

(* set_next_headers + next_header: linking to a non-extension number n walks to n *)
Theorem C12_link_walks : forall e n, is_ext_number n = false ->
  next_header (fst (set_next_headers e n)) (snd (set_next_headers e n)) = Ok n.
Proof. exact link_walks. Qed.
Print Assumptions C12_link_walks.

(* ... the links set are those of the RFC 8200 4.1 order (Spec.linked over the
   present headers in Spec.rfc8200_order), for every n *)
Theorem C12_link_rfc_order : forall e n,
  linked (snd (set_next_headers e n)) (in_rfc_order (get_nh (fst (set_next_headers e n)))) n.
Proof. exact set_next_headers_linked. Qed.
Print Assumptions C12_link_rfc_order.

(* ... and write visits the headers in exactly that order: the bytes are the
   RFC wire formats (the wire_ functions of Spec) of the present headers in RFC 8200 order *)
Theorem C12_link_write_order : forall e n, exts6_valid e = true -> is_ext_number n = false ->
  write (fst (set_next_headers e n)) (snd (set_next_headers e n))
  = (rfc_order_bytes (fst (set_next_headers e n)), Ok tt).
Proof. exact link_write_order. Qed.
Print Assumptions C12_link_write_order.

(* write succeeds exactly when next_header succeeds, same error otherwise;
   neither panics (unwrap) nor loops (fuel) -- for every chain, consistent or not *)
Theorem C12_write_iff_walk : forall e first, exts6_valid e = true ->
  match next_header e first with
  | Ok n => snd (write e first) = Ok tt
  | Err x => snd (write e first) = Err x
  | Panic | OutOfFuel => False
  end.
Proof. exact write_iff_walk. Qed.
Print Assumptions C12_write_iff_walk.

(* bytes written = header_len: no present header is dropped, none written twice *)
Theorem C12_write_len : forall e first bs, exts6_valid e = true ->
  write e first = (bs, Ok tt) -> len bs = header_len e.
Proof. exact write_len. Qed.
Print Assumptions C12_write_len.

(* decoding the written bytes gives the same struct, the same final number, no rest *)
Theorem C12_decode_write : forall e first bs n, exts6_valid e = true ->
  write e first = (bs, Ok tt) -> next_header e first = Ok n -> is_ext_number n = false ->
  from_slice first bs = Ok (e, n, []).
Proof. exact decode_write. Qed.
Print Assumptions C12_decode_write.

(* an inconsistent chain is reported with a header that really is in the struct *)
Theorem C12_error_truth : forall e first x, next_header e first = Err x -> error_true e x.
Proof. exact error_truth. Qed.
Print Assumptions C12_error_truth.

(* ------------------------------------------------------------------ *)
(* Ipv4Extensions (only the authentication header) *)

Theorem C12_v4_link_walks : forall e n,
  next_header4 (fst (set_next_headers4 e n)) (snd (set_next_headers4 e n)) = Ok n.
Proof. exact link_walks4. Qed.
Print Assumptions C12_v4_link_walks.

Theorem C12_v4_link_rfc_order : forall e n,
  linked (snd (set_next_headers4 e n)) (in_rfc_order (get_nh4 (fst (set_next_headers4 e n)))) n.
Proof. exact set_next_headers4_linked. Qed.
Print Assumptions C12_v4_link_rfc_order.

Theorem C12_v4_link_write_order : forall e n, exts4_valid e = true ->
  write4 (fst (set_next_headers4 e n)) (snd (set_next_headers4 e n))
  = (rfc_order_bytes4 (fst (set_next_headers4 e n)), Ok tt).
Proof. exact link_write_order4. Qed.
Print Assumptions C12_v4_link_write_order.

Theorem C12_v4_write_iff_walk : forall e first, exts4_valid e = true ->
  match next_header4 e first with
  | Ok n => snd (write4 e first) = Ok tt
  | Err x => snd (write4 e first) = Err x
  | Panic | OutOfFuel => False
  end.
Proof. exact write4_iff_walk. Qed.
Print Assumptions C12_v4_write_iff_walk.

Theorem C12_v4_write_len : forall e first bs, exts4_valid e = true ->
  write4 e first = (bs, Ok tt) -> len bs = header_len4 e.
Proof. exact write4_len. Qed.
Print Assumptions C12_v4_write_len.

Theorem C12_v4_decode_write : forall e first bs n, exts4_valid e = true ->
  write4 e first = (bs, Ok tt) -> next_header4 e first = Ok n -> is_ext_number_v4 n = false ->
  from_slice4 first bs = Ok (e, n, []).
Proof. exact decode_write4. Qed.
Print Assumptions C12_v4_decode_write.

Theorem C12_v4_error_truth : forall e first x, next_header4 e first = Err x ->
  x = ExtNotReferenced (ip_number_of KAuth) /\ is_some (auth4 e) = true.
Proof. exact error_truth4. Qed.
Print Assumptions C12_v4_error_truth.

(* ------------------------------------------------------------------ *)
(* IpHeaders::set_next_headers / NetHeaders::try_set_next_headers *)

Theorem C12_ether_type : forall h n,
  snd (ip_set_next_headers h n) = ether_type_of_version h /\
  net_try_set_next_headers (net_of_ip h) n
  = (net_of_ip (fst (ip_set_next_headers h n)), Ok (ether_type_of_version h)) /\
  net_try_set_next_headers NetArp n = (NetArp, Err ArpHeader).
Proof.
  exact (fun h n => conj (ip_set_next_headers_ether_type h n)
                         (conj (net_try_set_next_headers_ether_type h n)
                               (net_try_set_next_headers_arp n))).
Qed.
Print Assumptions C12_ether_type.

Theorem C12_ip_link_walks : forall h n, ip_is_ext h n = false ->
  ip_next_header (fst (ip_set_next_headers h n)) = Ok n.
Proof. exact ip_link_walks. Qed.
Print Assumptions C12_ip_link_walks.

(* ------------------------------------------------------------------ *)
(* statement pins *)
Check (C12_link_walks : forall e n, is_ext_number n = false ->
  next_header (fst (set_next_headers e n)) (snd (set_next_headers e n)) = Ok n).
Check (C12_decode_write : forall e first bs n, exts6_valid e = true ->
  write e first = (bs, Ok tt) -> next_header e first = Ok n -> is_ext_number n = false ->
  from_slice first bs = Ok (e, n, [])).
Check (C12_write_len : forall e first bs, exts6_valid e = true ->
  write e first = (bs, Ok tt) -> len bs = header_len e).

(* ------------------------------------------------------------------ *)
(* non-vacuity: a chain with all six headers, payloads of 6, 14 and 22 bytes,
   an ICV of 8 bytes; next_header fields deliberately wrong before linking *)
Definition ex_raw (nh hl fill : N) : RawExt :=
  mkRaw nh hl (repeat fill (N.to_nat (6 + hl * 8))).
Definition ex_all : Exts6 :=
  mkExts6 (Some (ex_raw 7 0 1)) (Some (ex_raw 0 1 2))
          (Some (mkRouting (ex_raw 60 2 3) (Some (ex_raw 44 0 4))))
          (Some (mkFrag 43 8191 true 4294967295))
          (Some (mkAuth 51 305419896 4294967295 2 [9; 8; 7; 6; 5; 4; 3; 2])).

Example C12_ex_valid : exts6_valid ex_all = true /\ is_ext_number 17 = false.
Proof. vm_compute. repeat split. Qed.

(* linked to UDP (17): first header is hop-by-hop (0), the walk ends at 17,
   52 + 20 = 8+16+24+8+20+8 bytes are written and decode to the same struct *)
Example C12_ex_linked :
  let e := fst (set_next_headers ex_all 17) in
  snd (set_next_headers ex_all 17) = 0 /\
  next_header e 0 = Ok 17 /\
  snd (write e 0) = Ok tt /\ len (fst (write e 0)) = 84 /\ header_len e = 84 /\
  fst (write e 0) = rfc_order_bytes e /\
  from_slice 0 (fst (write e 0)) = Ok (e, 17, []).
Proof. vm_compute. repeat split; reflexivity. Qed.

(* a consistent chain that is NOT in RFC order (auth first, then routing, final
   destination options, fragment) also round-trips: hypotheses of
   C12_decode_write are satisfiable by chains set_next_headers never builds *)
Definition ex_perm : Exts6 :=
  mkExts6 None None
          (Some (mkRouting (ex_raw 60 1 3) (Some (ex_raw 44 0 4))))
          (Some (mkFrag 6 0 false 7))
          (Some (mkAuth 43 1 2 0 [])).
Example C12_ex_perm :
  exts6_valid ex_perm = true /\ next_header ex_perm 51 = Ok 6 /\ is_ext_number 6 = false /\
  snd (write ex_perm 51) = Ok tt /\
  from_slice 51 (fst (write ex_perm 51)) = Ok (ex_perm, 6, []).
Proof. vm_compute. repeat split; reflexivity. Qed.

(* inconsistent chains: the unlinked ex_all is refused by both walkers with the same error;
   first header 0 without a hop-by-hop header (finding F3, repaired) is Ok 0 for both *)
Example C12_ex_broken :
  next_header ex_all 0 = Err (ExtNotReferenced 60) /\
  snd (write ex_all 0) = Err (ExtNotReferenced 60) /\
  next_header ex_all 60 = Err HopByHopNotAtStart /\
  snd (write ex_all 60) = Err HopByHopNotAtStart /\
  next_header ex_perm 0 = Err (ExtNotReferenced 43) /\
  next_header exts6_default 0 = Ok 0 /\ write exts6_default 0 = ([], Ok tt).
Proof. vm_compute. repeat split; reflexivity. Qed.

(* why C12_decode_write needs `is_ext_number n = false`: a chain that stops on
   an extension number whose header is absent writes fine but the decoder
   goes on reading *)
Example C12_ex_needs_non_ext :
  let e := mkExts6 None None None (Some (mkFrag 51 0 false 0)) None in
  next_header e 44 = Ok 51 /\ snd (write e 44) = Ok tt /\
  from_slice 44 (fst (write e 44)) <> Ok (e, 51, []).
Proof. vm_compute. repeat split; try reflexivity. discriminate. Qed.

Example C12_ex_v4 :
  let e := mkExts4 (Some (mkAuth 0 1 2 1 [1; 2; 3; 4])) in
  exts4_valid e = true /\ is_ext_number_v4 0 = false /\
  set_next_headers4 e 6 = (mkExts4 (Some (mkAuth 6 1 2 1 [1; 2; 3; 4])), 51) /\
  next_header4 e 51 = Ok 0 /\ next_header4 e 6 = Err (ExtNotReferenced 51) /\
  from_slice4 51 (fst (write4 e 51)) = Ok (e, 0, []).
Proof. vm_compute. repeat split; reflexivity. Qed.

Example C12_ex_ether :
  ip_is_ext (Ipv6 59 ex_all) 17 = false /\
  ip_next_header (fst (ip_set_next_headers (Ipv6 59 ex_all) 17)) = Ok 17 /\
  ip_next_header (Ipv6 59 ex_all) = Err (Ipv6Exts (ExtNotReferenced 0)) /\
  snd (ip_set_next_headers (Ipv6 59 ex_all) 17) = 34525 /\
  snd (ip_set_next_headers (Ipv4 0 0 (mkExts4 None)) 17) = 2048.
Proof. vm_compute. repeat split; reflexivity. Qed.

(* decoding ARBITRARY bytes.
   Reference: ExtChain/WalkSpec.v (slot rule `decide`, framing `frame`, the walk
   `ref_walk`; termination measure = bytes left) and ExtChain/WalkView.v (what
   struct / error record / lax result a walk stands for). *)
From EP Require Import ExtChain.WalkSpec ExtChain.WalkView ExtChain.WalkProofs ExtChain.WriteBack
  ExtChain.DecodeTotal.

(* Ipv6Extensions::from_slice and from_slice_lax, for EVERY byte string and EVERY first number:
   - both are the reference walk read through strict_of_walk / lax_of_walk: Ok or Err, never Panic,
     never OutOfFuel (w_stop <> SFuel; strict_of_walk/lax_of_walk yield Panic/OutOfFuel for no other stop);
     lax = same struct/number/rest as strict on success, otherwise the headers in front of the fault,
     the number and bytes at the fault, and the fault (definition of lax_of_walk);
   - chain_ok: every header is framed by its own length field, goes to the position the slot rule
     `decide` gives for the number announced by its predecessor, and the walk stops exactly on a
     non-extension number, on an extension header whose position is filled (DRefilled), on
     hop-by-hop options not at the start (error) or on a framing fault (error);
   - the input is consumed ++ rest; the returned number is the first byte of the last header (or `first`);
   - slot-wise, the struct holds the decode (bytes at the RFC offsets) of the bytes of each position and
     nothing else; it satisfies the type invariant;
   - both termination measures: at most 6 headers (free positions, the model's fuel) and at least 8
     bytes per header (bytes left, the reference walker's fuel). *)
Theorem C12_from_slice_total : forall first bs, bytes_ok bs ->
  let w := ref_walk first bs in
  from_slice first bs = strict_of_walk w /\
  from_slice_lax first bs = lax_of_walk w /\
  w_stop w <> SFuel /\
  chain_ok true [] first bs (w_chain w) (w_next w) (w_rest w) (w_stop w) /\
  bs = consumed w ++ w_rest w /\
  last_next first (w_chain w) = Some (w_next w) /\
  slotwise (struct_of_chain (w_chain w)) (w_chain w) /\
  exts6_valid (struct_of_chain (w_chain w)) = true /\
  len (w_chain w) <= 6 /\ 8 * len (w_chain w) <= len (consumed w).
Proof. exact from_slice_total. Qed.
Print Assumptions C12_from_slice_total.

(* the same without the reference: no Panic / OutOfFuel; lax agrees with strict on success and
   carries strict's error otherwise *)
Theorem C12_from_slice_lax_total : forall first bs, bytes_ok bs ->
  match from_slice first bs with
  | Ok (e, n, rest) => from_slice_lax first bs = Ok (e, n, rest, None)
  | Err x => exists e n rest l, from_slice_lax first bs = Ok (e, n, rest, Some (x, l))
  | Panic | OutOfFuel => False
  end.
Proof. exact from_slice_never_panics. Qed.
Print Assumptions C12_from_slice_lax_total.

(* the slot rule the decoders implement, case by case (n: announced number, seen: positions filled) *)
Theorem C12_slot_rule : forall seen n,
  (decide false seen n = DNonExt <-> is_ext_number n = false) /\
  (decide false seen n = DHopNotAtStart <-> n = 0 /\ false = false) /\
  (decide false seen n = DRefilled ->
     (n = 60 /\ (has KRouting seen = true /\ has KFinalDestOpts seen = true
                 \/ has KRouting seen = false /\ has KDestOpts seen = true)) \/
     (n = 43 /\ has KRouting seen = true) \/ (n = 44 /\ has KFragment seen = true) \/
     (n = 51 /\ has KAuth seen = true)) /\
  (forall k, decide false seen n = DTake k ->
     (k = KDestOpts /\ n = 60 /\ has KRouting seen = false /\ has KDestOpts seen = false) \/
     (k = KFinalDestOpts /\ n = 60 /\ has KRouting seen = true /\ has KFinalDestOpts seen = false) \/
     (k = KRouting /\ n = 43 /\ has KRouting seen = false) \/
     (k = KFragment /\ n = 44 /\ has KFragment seen = false) \/
     (k = KAuth /\ n = 51 /\ has KAuth seen = false)).
Proof.
  exact (fun seen n => conj (decide_nonext false seen n) (conj (decide_hop false seen n)
           (conj (decide_refilled false seen n) (fun k => decide_take_loop seen n k)))).
Qed.
Print Assumptions C12_slot_rule.

(* decode then write: on every accepted byte string (also when the decoder stopped in front of a
   repeated header) `write` of the decoded struct with the same first number re-emits the consumed
   bytes with the reserved fields cleared (WalkView.normalise: fragment header byte 1 := 0 and
   byte 3 := byte 3 & 0xF9, authentication header bytes 2-3 := 0; everything else verbatim), and
   `next_header` walks to the returned number *)
Theorem C12_decode_any_then_write : forall first bs e n rest, bytes_ok bs ->
  from_slice first bs = Ok (e, n, rest) ->
  let w := ref_walk first bs in
  e = struct_of_chain (w_chain w) /\ n = w_next w /\ rest = w_rest w /\
  bs = consumed w ++ rest /\
  write e first = (normalised (w_chain w), Ok tt) /\
  next_header e first = Ok n /\
  len (normalised (w_chain w)) = len (consumed w).
Proof. exact decode_any_then_write. Qed.
Print Assumptions C12_decode_any_then_write.

(* Ipv4Extensions *)
Theorem C12_v4_from_slice_total : forall first bs, bytes_ok bs ->
  let w := ref_walk4 first bs in
  from_slice4 first bs = strict4_of_walk w /\
  from_slice_lax4 first bs = lax4_of_walk w /\
  w_stop w <> SFuel /\
  bs = consumed w ++ w_rest w /\
  last_next first (w_chain w) = Some (w_next w) /\
  exts4_valid (struct4_of_chain (w_chain w)) = true.
Proof. exact from_slice4_total. Qed.
Print Assumptions C12_v4_from_slice_total.

Theorem C12_v4_decode_any_then_write : forall first bs e n rest, bytes_ok bs ->
  from_slice4 first bs = Ok (e, n, rest) ->
  let w := ref_walk4 first bs in
  e = struct4_of_chain (w_chain w) /\ n = w_next w /\ rest = w_rest w /\
  bs = consumed w ++ rest /\
  write4 e first = (normalised (w_chain w), Ok tt) /\
  next_header4 e first = Ok n.
Proof. exact decode_any_then_write4. Qed.
Print Assumptions C12_v4_decode_any_then_write.

(* non-vacuity: hop-by-hop, destination options, routing (16 bytes), final destination options, fragment
   header with reserved byte 0xAA and reserved bits set (0x37), authentication header with reserved
   bytes 0xBB 0xCC, then a SECOND routing header: the decoder stops in front of it (SRefilled) *)
Definition ex_wire : bytes :=
  [60;0;1;2;3;4;5;6] ++ [43;0;7;7;7;7;7;7] ++ [60;1;9;9;9;9;9;9;9;9;9;9;9;9;9;9] ++ [44;0;8;8;8;8;8;8]
  ++ [51;170;18;55;1;2;3;4] ++ [43;1;187;204;0;0;0;5;0;0;0;6] ++ [17;0;1;1;1;1;1;1] ++ [255;254].

Example C12_ex_walk :
  bytes_ok ex_wire /\
  let w := ref_walk 0 ex_wire in
  map fst (w_chain w) = [KHopByHop; KDestOpts; KRouting; KFinalDestOpts; KFragment; KAuth] /\
  w_stop w = SRefilled /\ w_next w = 43 /\ len (w_rest w) = 10 /\ len (consumed w) = 60 /\
  (let e := struct_of_chain (w_chain w) in
     from_slice 0 ex_wire = Ok (e, 43, w_rest w) /\ from_slice_lax 0 ex_wire = Ok (e, 43, w_rest w, None) /\
     fragment e = Some (mkFrag 51 582 true 16909060) /\
     write e 0 = (normalised (w_chain w), Ok tt) /\ next_header e 0 = Ok 43) /\
  normalised (w_chain w) <> consumed w /\
  drop 32 (take 52 (normalised (w_chain w))) = [44;0;8;8;8;8;8;8] ++ [51;0;18;49;1;2;3;4] ++ [43;1;0;0].
Proof.
  split; [apply bytes_okb_spec; vm_compute; reflexivity|].
  vm_compute. repeat split; try reflexivity; discriminate.
Qed.

(* faults: a destination options header cut one byte short; hop-by-hop options behind a fragment header;
   AH with payload length 0.  The lax decoder keeps the headers in front of the fault. *)
Example C12_ex_faults :
  from_slice 60 ([44;1;0;0;0;0;0;0] ++ [0;0;0;0;0;0;0]) = Err (HLen (mkLenError 16 15 LIpv6ExtHeader 0)) /\
  from_slice 44 ([60;0;0;1;0;0;0;9] ++ [17;2;0;0;0;0;0;0;0;0])
    = Err (HLen (mkLenError 24 10 LIpv6ExtHeader 8)) /\
  from_slice_lax 44 ([60;0;0;1;0;0;0;9] ++ [17;2;0;0;0;0;0;0;0;0])
    = Ok (mkExts6 None None None (Some (mkFrag 60 0 true 9)) None, 60, [17;2;0;0;0;0;0;0;0;0],
          Some (HLen (mkLenError 24 10 LIpv6ExtHeader 8), LIpv6DestOptionsHeader)) /\
  from_slice 44 ([0;0;0;0;0;0;0;9] ++ [17;0;0;0;0;0;0;0]) = Err HHopByHopNotAtStart /\
  from_slice 51 [17;0;0;0;0;0;0;1;0;0;0;2] = Err HIpAuthZeroPayloadLen /\
  w_stop (ref_walk 44 ([60;0;0;1;0;0;0;9] ++ [17;2;0;0;0;0;0;0;0;0])) = SFault KDestOpts (FLen 24) /\
  from_slice4 51 [6;1;9;9;0;0;0;1;0;0;0;2;77] = Ok (mkExts4 (Some (mkAuth 6 1 2 0 [])), 6, [77]) /\
  write4 (mkExts4 (Some (mkAuth 6 1 2 0 []))) 51 = ([6;1;0;0;0;0;0;1;0;0;0;2], Ok tt).
Proof. vm_compute. repeat split; reflexivity. Qed.

(* the reader-based decoders Ipv6Extensions::{read, read_limited} and
   Ipv4Extensions::{read, read_limited} (ExtChain/ReadModel.v, value-carrying; reader and
   LimitedReader are C16's: IoFault/Spec.v fsource, IoFault/Model.v io_read_exact / limrd).
   Reader state: mk_st d c p m = the bytes d still to come, at most c >= 1 per read call, p bytes
   delivered so far, m = MPlain (read) | MLim r (read_limited); `m_ok d m`: the LimitedReader's
   budget does not exceed the data ("the input holds the chain"); `view d m`: the bytes the decoder
   can see (all of d, or the budget's prefix). *)
From EP Require Import IoFault.Spec IoFault.Model ExtChain.ReadModel ExtChain.ReadView ExtChain.ReadProofs.

(* whenever from_slice accepts the visible bytes, read / read_limited return the same struct and the
   same number, have consumed exactly the bytes from_slice consumed (k = len consumed), and what the
   reader can still deliver is from_slice's rest *)
Theorem C12_read_eq_from_slice : forall d c p m first e n rest, 1 <= c -> bytes_ok d -> m_ok d m ->
  from_slice first (view d m) = Ok (e, n, rest) ->
  exists m' k, view d m = take k (view d m) ++ rest /\ k <= avail d m /\
    read6 (lim_of m) first (mk_st d c p m) = (QOk (e, n), mk_st (drop k d) c (p + k) m') /\
    view (drop k d) m' = rest /\ m_ok (drop k d) m' /\ lim_of m' = lim_of m.
Proof. exact read6_eq_from_slice. Qed.
Print Assumptions C12_read_eq_from_slice.

(* every answer of read / read_limited is the reference walk's over the visible bytes: same stop
   rule, same content errors; a framing fault is UnexpectedEof on a plain reader and the
   LimitedReader's LenError (required: ReadView.lim_required, len = bytes left, layer, offset) otherwise *)
Theorem C12_read_walk : forall d c p m first, 1 <= c -> bytes_ok d -> m_ok d m ->
  fst (read6 (lim_of m) first (mk_st d c p m)) = read_of_walk m (ref_walk first (view d m)).
Proof. exact (fun d c p m first Hc OK Hok => proj1 (read6_walk d c p m first Hc OK Hok)). Qed.
Print Assumptions C12_read_walk.

(* never an impossible index (QBad), a usize underflow in the LimitedReader (QUnderflow) or fuel exhaustion *)
Theorem C12_read_total : forall d c p m first, 1 <= c -> bytes_ok d -> m_ok d m ->
  match fst (read6 (lim_of m) first (mk_st d c p m)) with
  | QOk _ | QIo KEof | QLen _ | QContent CHopNotAtStart | QContent CAuthZeroLen => True
  | _ => False
  end.
Proof. exact read6_regular. Qed.
Print Assumptions C12_read_total.

(* Ipv6Extensions::read(&mut Cursor::new(bs), first) *)
Theorem C12_read_cursor : forall first bs e n rest, bytes_ok bs ->
  from_slice first bs = Ok (e, n, rest) ->
  exists s', read6 false first (mk_rstate (cursor bs) None) = (QOk (e, n), mk_rstate s' None) /\
             src_data s' = rest /\ src_pulled s' + len rest = len bs.
Proof. exact read6_cursor. Qed.
Print Assumptions C12_read_cursor.

Theorem C12_v4_read_eq_from_slice : forall d c p m first e n rest, 1 <= c -> bytes_ok d -> m_ok d m ->
  from_slice4 first (view d m) = Ok (e, n, rest) ->
  exists m' k, view d m = take k (view d m) ++ rest /\ k <= avail d m /\
    read4 (lim_of m) first (mk_st d c p m) = (QOk (e, n), mk_st (drop k d) c (p + k) m') /\
    view (drop k d) m' = rest /\ m_ok (drop k d) m' /\ lim_of m' = lim_of m.
Proof. exact read4_eq_from_slice. Qed.
Print Assumptions C12_v4_read_eq_from_slice.

Theorem C12_v4_read_walk : forall d c p m first, 1 <= c -> bytes_ok d -> m_ok d m ->
  fst (read4 (lim_of m) first (mk_st d c p m)) = read4_of_walk m (ref_walk4 first (view d m)).
Proof. exact (fun d c p m first Hc OK Hok => proj1 (read4_walk d c p m first Hc OK Hok)). Qed.
Print Assumptions C12_v4_read_walk.

(* non-vacuity: ex_wire through a Cursor (chunks of 3 bytes per read call) and through LimitedReaders
   with a budget of exactly the six headers (60: Ok, stops on the number 43 with nothing left), of one
   byte less (59: the authentication header does not fit: LenError required 12, len 11, layer 5 = IpAuthHeader,
   offset 40 + 48) and of 63 (the second routing header is announced but not read: Ok) *)
Example C12_ex_read :
  let e := struct_of_chain (w_chain (ref_walk 0 ex_wire)) in
  m_ok ex_wire (MLim (lr_new 60 LS_IPV6_PAYLOAD 40 L_IPV6H)) /\
  read6 false 0 (mk_st ex_wire 3 0 MPlain) = (QOk (e, 43), mk_st (drop 60 ex_wire) 3 60 MPlain) /\
  fst (read6 true 0 (mk_st ex_wire 3 0 (MLim (lr_new 60 LS_IPV6_PAYLOAD 40 L_IPV6H)))) = QOk (e, 43) /\
  fst (read6 true 0 (mk_st ex_wire 3 0 (MLim (lr_new 63 LS_IPV6_PAYLOAD 40 L_IPV6H)))) = QOk (e, 43) /\
  fst (read6 true 0 (mk_st ex_wire 3 0 (MLim (lr_new 59 LS_IPV6_PAYLOAD 40 L_IPV6H))))
    = QLen (mk_lenerr 12 11 LS_IPV6_PAYLOAD L_AUTH 88) /\
  fst (read6 false 0 (mk_st (take 59 ex_wire) 3 0 MPlain)) = QIo KEof /\
  fst (read6 false 44 (mk_st ([0;0;0;0;0;0;0;9] ++ [17;0;0;0;0;0;0;0]) 1 0 MPlain)) = QContent CHopNotAtStart /\
  fst (read4 false 51 (mk_st [6;1;9;9;0;0;0;1;0;0;0;2;77] 5 0 MPlain)) = QOk (mkExts4 (Some (mkAuth 6 1 2 0 [])), 6).
Proof.
  vm_compute. repeat split; discriminate.
Qed.

(* the value-carrying readers against the read PROGRAMS of C16 (IoFault/Model.v x6_read / x4_read run by
   run_r, the objects of C16's fault theorems and of C06's read = from_slice theorem
   Equiv.ReadChain.read_eq_slice_ipv6_exts): on every reader state whose source delivers at least one
   byte per call -- any data, any LimitedReader state, failing or not -- the program run is the run of
   read6 / read4 with the value erased to the program's summary [next number; mask of filled positions]:
   same reader calls, same final reader state, same verdict *)
From EP Require Import ExtChain.ReadErase.
Theorem C12_read_refines_c16 : forall lim first st, 1 <= src_chunk (rs_src st) ->
  run_r (x6_read lim first) st = (qmap summary6 (fst (read6 lim first st)), snd (read6 lim first st)) /\
  run_r (x4_read lim first) st = (qmap summary4 (fst (read4 lim first st)), snd (read4 lim first st)).
Proof. exact (fun lim first st H => conj (read6_erase lim first st H) (read4_erase lim first st H)). Qed.
Print Assumptions C12_read_refines_c16.

Example C12_ex_erase :
  run_r (x6_read true 0) (mk_st ex_wire 3 0 (MLim (lr_new 60 LS_IPV6_PAYLOAD 40 L_IPV6H)))
  = (QOk [43; 63], snd (read6 true 0 (mk_st ex_wire 3 0 (MLim (lr_new 60 LS_IPV6_PAYLOAD 40 L_IPV6H))))).
Proof. vm_compute. reflexivity. Qed.

(* WHEN does the walk succeed, WHAT does an error mean.
   Reference: ExtChain/ChainSpec.v, written from RFC 8200 4 / 4.1 without any function of the model:
     slot_order ks      every header may follow the ones in front of it (may_follow): hop-by-hop options only
                        directly behind the IPv6 header, the first destination options position never behind
                        the routing header, the second one only behind it; nothing else is constrained
                        (the order routing/fragment/auth is only "recommended" by the RFC and NOT enforced
                        by the crate, see C12_ex_chain4_permuted)
     referenced get first chain next
                        chain = headers of the set `get`, none twice, slot_order, Spec.linked first chain next
     can_extend / maximal   `next` announces a header of the set that is not yet in the chain and may follow it
     unreferenced       the headers of the set the chain does not mention, in RFC 8200 order
     complete_chain     Permutation chain (in_rfc_order get) /\ slot_order /\ linked first chain n:
                        EVERY header of the set exactly once
     verdict            VOk next | VHopByHopNotAtStart | VNotReferenced (number of the first unreferenced header)
   ExtChain/ChainView.v: res_of_verdict / unit_of_verdict (the verdict as Result of next_header / write),
   wire_bytes e ks (Spec wire formats of the headers at positions ks, in that order), error_of, decode_end. *)
From Coq Require Import Permutation.
From EP Require Import ExtChain.ChainSpec ExtChain.ChainView ExtChain.Soundness ExtChain.DecodeWriteAny.

(* the master statement, for EVERY struct and first number (no validity hypothesis for the walk): there is a
   chain from `first` through headers of e that cannot be continued; next_header returns its verdict; write
   (under the type invariant) emits exactly the headers of that chain, in chain order, in their RFC wire
   formats, and returns the same verdict -- also on the error path *)
Theorem C12_walk_exact : forall e first, exists chain next,
  referenced (get_nh e) first chain next /\ maximal (get_nh e) chain next /\
  next_header e first = res_of_verdict (verdict (get_nh e) chain next) /\
  (exts6_valid e = true ->
   write e first = (wire_bytes e (map fst chain), unit_of_verdict (verdict (get_nh e) chain next))).
Proof. exact walk_exact. Qed.
Print Assumptions C12_walk_exact.

(* ... and that chain is unique (for any header set): "the" maximal chain *)
Theorem C12_chain_unique : forall get first c1 n1 c2 n2,
  referenced get first c1 n1 -> maximal get c1 n1 ->
  referenced get first c2 n2 -> maximal get c2 n2 -> c1 = c2 /\ n1 = n2.
Proof. exact maximal_unique. Qed.
Print Assumptions C12_chain_unique.

(* soundness AND completeness of success: next_header is Ok n exactly when the headers of e can be
   arranged into a linked chain first ... n that obeys the slot discipline and contains EVERY header
   of e exactly once (nothing dropped, nothing twice) *)
Theorem C12_walk_ok_iff_chain : forall e first n,
  next_header e first = Ok n <->
  exists chain, Permutation chain (in_rfc_order (get_nh e)) /\ slot_order (map fst chain) /\ linked first chain n.
Proof. exact walk_ok_iff_chain. Qed.
Print Assumptions C12_walk_ok_iff_chain.

(* the same for write, with the bytes: they are the headers of that chain, in chain order *)
Theorem C12_write_ok_iff_chain : forall e first bs, exts6_valid e = true ->
  (write e first = (bs, Ok tt) <->
   exists chain n, (Permutation chain (in_rfc_order (get_nh e)) /\ slot_order (map fst chain) /\ linked first chain n) /\
                   next_header e first = Ok n /\ bs = wire_bytes e (map fst chain)).
Proof. exact write_ok_iff_chain. Qed.
Print Assumptions C12_write_ok_iff_chain.

(* exact characterisation of the errors: Err x exactly when the maximal chain leaves headers out; x names the
   FIRST header in RFC 8200 order that is left out (ExtNotReferenced), except that a chain stopping on
   0 in front of a left-out hop-by-hop header is HopByHopNotAtStart *)
Theorem C12_walk_err_iff_chain : forall e first x,
  next_header e first = Err x <->
  exists chain next k rest,
    referenced (get_nh e) first chain next /\ maximal (get_nh e) chain next /\
    unreferenced (get_nh e) chain = k :: rest /\ x = error_of next k.
Proof. exact walk_err_iff_chain. Qed.
Print Assumptions C12_walk_err_iff_chain.

(* the header an error names is in the struct and NO chain from `first` (maximal or not) leads to it:
   it really is unreferenced or misplaced; for HopByHopNotAtStart some non-empty chain leads to the number 0 *)
Theorem C12_walk_err_unreferenced : forall e first x, next_header e first = Err x ->
  match x with
  | ExtNotReferenced m =>
    exists k, ip_number_of k = m /\ is_some (get_nh e k) = true /\
              forall chain next, referenced (get_nh e) first chain next -> ~ In k (map fst chain)
  | HopByHopNotAtStart =>
    is_some (get_nh e KHopByHop) = true /\
    (forall chain next, referenced (get_nh e) first chain next -> ~ In KHopByHop (map fst chain)) /\
    exists chain, chain <> [] /\ referenced (get_nh e) first chain (ip_number_of KHopByHop)
  end.
Proof. exact walk_err_unreferenced. Qed.
Print Assumptions C12_walk_err_unreferenced.

(* a chain linked in the RFC 8200 order is accepted (the converse is false: C12_ex_chain4_permuted) *)
Theorem C12_rfc_order_walks : forall e first n,
  linked first (in_rfc_order (get_nh e)) n -> next_header e first = Ok n.
Proof. exact rfc_order_walks. Qed.
Print Assumptions C12_rfc_order_walks.

(* Ipv4Extensions: the same statements (the set has at most the authentication header) *)
Theorem C12_v4_walk_exact : forall e first, exists chain next,
  referenced (get_nh4 e) first chain next /\ maximal (get_nh4 e) chain next /\
  next_header4 e first = res_of_verdict (verdict (get_nh4 e) chain next) /\
  (exts4_valid e = true ->
   write4 e first = (wire_bytes4 e (map fst chain), unit_of_verdict (verdict (get_nh4 e) chain next))).
Proof. exact walk4_exact. Qed.
Print Assumptions C12_v4_walk_exact.

Theorem C12_v4_walk_ok_iff_chain : forall e first n,
  next_header4 e first = Ok n <->
  exists chain, Permutation chain (in_rfc_order (get_nh4 e)) /\ slot_order (map fst chain) /\ linked first chain n.
Proof. exact walk4_ok_iff_chain. Qed.
Print Assumptions C12_v4_walk_ok_iff_chain.

Theorem C12_v4_write_ok_iff_chain : forall e first bs, exts4_valid e = true ->
  (write4 e first = (bs, Ok tt) <->
   exists chain n, (Permutation chain (in_rfc_order (get_nh4 e)) /\ slot_order (map fst chain) /\ linked first chain n) /\
                   next_header4 e first = Ok n /\ bs = wire_bytes4 e (map fst chain)).
Proof. exact write4_ok_iff_chain. Qed.
Print Assumptions C12_v4_write_ok_iff_chain.

Theorem C12_v4_walk_err_iff : forall e first x,
  next_header4 e first = Err x <->
  x = ExtNotReferenced (ip_number_of KAuth) /\ is_some (auth4 e) = true /\ first <> ip_number_of KAuth.
Proof. exact walk4_err_iff. Qed.
Print Assumptions C12_v4_walk_err_iff.

(* decode o write for EVERY final number (C12_decode_write is the case DNonExt): the decoder re-reads every
   header of e and then treats n by the slot rule with every position of e filled (ChainView.decode_end):
   Ok (e, n, []) for a non-extension number or a number whose position is filled; HopByHopNotAtStart for 0;
   otherwise it looks for the announced header behind the written bytes: LenError{required 8 (12 for the
   authentication header), len 0, layer of that header, offset = len bs} *)
Theorem C12_decode_write_any : forall e first bs n, exts6_valid e = true ->
  write e first = (bs, Ok tt) -> next_header e first = Ok n ->
  from_slice first bs =
  match decide (is_nil (present_kinds e)) (present_kinds e) n with
  | DNonExt | DRefilled => Ok (e, n, [])
  | DHopNotAtStart => Err HHopByHopNotAtStart
  | DTake k => Err (fault_error (len bs) 0 k (FLen (min_header_len k)))
  end.
Proof. exact decode_write_any. Qed.
Print Assumptions C12_decode_write_any.

(* ... so the round trip holds EXACTLY for those two classes of n *)
Theorem C12_decode_write_iff : forall e first bs n, exts6_valid e = true ->
  write e first = (bs, Ok tt) -> next_header e first = Ok n ->
  (from_slice first bs = Ok (e, n, []) <->
   is_ext_number n = false \/ decide false (present_kinds e) n = DRefilled).
Proof. exact decode_write_iff. Qed.
Print Assumptions C12_decode_write_iff.

Theorem C12_v4_decode_write_any : forall e first bs n, exts4_valid e = true ->
  write4 e first = (bs, Ok tt) -> next_header4 e first = Ok n ->
  from_slice4 first bs =
  if is_some (auth4 e) || negb (n =? ip_number_of KAuth) then Ok (e, n, [])
  else Err (ALen (mkLenError 12 0 LIpAuthHeader 0)).
Proof. exact decode_write4_any. Qed.
Print Assumptions C12_v4_decode_write_any.

(* the slot rule `decide` as equivalences, for both values of start (completes C12_slot_rule) *)
Theorem C12_slot_rule_full : forall start seen n,
  (decide start seen n = DNonExt <-> is_ext_number n = false) /\
  (decide start seen n = DHopNotAtStart <-> n = 0 /\ start = false) /\
  (decide start seen n = DRefilled <->
     (n = 60 /\ (has KRouting seen = true /\ has KFinalDestOpts seen = true
                 \/ has KRouting seen = false /\ has KDestOpts seen = true)) \/
     (n = 43 /\ has KRouting seen = true) \/ (n = 44 /\ has KFragment seen = true) \/
     (n = 51 /\ has KAuth seen = true)) /\
  (forall k, decide start seen n = DTake k <->
     (k = KHopByHop /\ n = 0 /\ start = true) \/
     (k = KDestOpts /\ n = 60 /\ has KRouting seen = false /\ has KDestOpts seen = false) \/
     (k = KFinalDestOpts /\ n = 60 /\ has KRouting seen = true /\ has KFinalDestOpts seen = false) \/
     (k = KRouting /\ n = 43 /\ has KRouting seen = false) \/
     (k = KFragment /\ n = 44 /\ has KFragment seen = false) \/
     (k = KAuth /\ n = 51 /\ has KAuth seen = false)).
Proof. exact slot_rule_full. Qed.
Print Assumptions C12_slot_rule_full.

(* ------------------------------------------------------------------ *)
(* non-vacuity *)

(* a 4-header chain in RFC order: hop-by-hop -> destination options -> routing -> fragment -> TCP *)
Definition ex_chain4 : Exts6 :=
  mkExts6 (Some (ex_raw 60 0 1)) (Some (ex_raw 43 1 2)) (Some (mkRouting (ex_raw 44 0 3) None))
          (Some (mkFrag 6 185 true 7)) None.

Example C12_ex_chain4 :
  let chain := [(KHopByHop, 60); (KDestOpts, 43); (KRouting, 44); (KFragment, 6)] in
  exts6_valid ex_chain4 = true /\
  (Permutation chain (in_rfc_order (get_nh ex_chain4)) /\ slot_order (map fst chain) /\ linked 0 chain 6) /\
  next_header ex_chain4 0 = Ok 6 /\
  write ex_chain4 0 = (wire_bytes ex_chain4 [KHopByHop; KDestOpts; KRouting; KFragment], Ok tt) /\
  len (wire_bytes ex_chain4 [KHopByHop; KDestOpts; KRouting; KFragment]) = 40.
Proof.
  cbv zeta. split; [vm_compute; reflexivity|]. split.
  - split; [apply Permutation_refl|]. split; [apply slot_orderb_sound; reflexivity|].
    cbn. repeat split; reflexivity.
  - vm_compute. repeat split; reflexivity.
Qed.

(* ex_perm (above): 4 headers linked auth -> routing -> final destination options -> fragment -> TCP.
   Every header once, slot discipline obeyed, NOT the RFC order: accepted.  So the walk does not
   enforce the recommended order of routing/fragment/auth ("RFC 8200 order only" is refuted) *)
Example C12_ex_chain4_permuted :
  let chain := [(KAuth, 43); (KRouting, 60); (KFinalDestOpts, 44); (KFragment, 6)] in
  (Permutation chain (in_rfc_order (get_nh ex_perm)) /\ slot_order (map fst chain) /\ linked 51 chain 6) /\
  next_header ex_perm 51 = Ok 6 /\
  fst (write ex_perm 51) = wire_bytes ex_perm [KAuth; KRouting; KFinalDestOpts; KFragment] /\
  ~ (exists first n, linked first (in_rfc_order (get_nh ex_perm)) n).
Proof.
  cbv zeta. split; [|split; [vm_compute; reflexivity|split; [vm_compute; reflexivity|]]].
  - split.
    + change (in_rfc_order (get_nh ex_perm))
        with ([(KRouting, 60); (KFragment, 6)] ++ (KAuth, 43) :: [(KFinalDestOpts, 44)]).
      apply Permutation_cons_app. cbn [app]. apply perm_skip. apply perm_swap.
    + split; [apply slot_orderb_sound; reflexivity|]. cbn. repeat split; reflexivity.
  - intros (first & n & L). cbn in L. destruct L as (_ & L & _). discriminate L.
Qed.

(* failing chains (4 headers each).
   (a) unreferenced: the destination options point past the routing header (60 -> 44): the maximal chain is
       hop-by-hop, destination options, fragment; the routing header is left out: ExtNotReferenced 43;
       write has emitted the three referenced headers (24 bytes) when it reports the error.
   (b) misplaced: destination options announced BEHIND the routing header (first slot, no second slot
       header): the chain stops at the routing header although 60 is announced and a header with number 60
       is in the struct: ExtNotReferenced 60.
   (c) hop-by-hop options announced by the fragment header: HopByHopNotAtStart *)
Definition ex_unref : Exts6 :=
  mkExts6 (Some (ex_raw 60 0 1)) (Some (ex_raw 44 0 2)) (Some (mkRouting (ex_raw 44 0 3) None))
          (Some (mkFrag 6 0 false 7)) None.
Definition ex_misplaced : Exts6 :=
  mkExts6 None (Some (ex_raw 44 0 2)) (Some (mkRouting (ex_raw 60 0 3) None))
          (Some (mkFrag 51 0 false 7)) (Some (mkAuth 6 1 2 0 [])).
Definition ex_late_hop : Exts6 :=
  mkExts6 (Some (ex_raw 6 0 1)) None (Some (mkRouting (ex_raw 51 0 3) None))
          (Some (mkFrag 0 0 false 7)) (Some (mkAuth 44 1 2 0 [])).

Example C12_ex_chain4_failing :
  (let chain := [(KHopByHop, 60); (KDestOpts, 44); (KFragment, 6)] in
   referenced (get_nh ex_unref) 0 chain 6 /\ maximal (get_nh ex_unref) chain 6 /\
   unreferenced (get_nh ex_unref) chain = [KRouting] /\
   next_header ex_unref 0 = Err (ExtNotReferenced 43) /\
   write ex_unref 0 = (wire_bytes ex_unref [KHopByHop; KDestOpts; KFragment], Err (ExtNotReferenced 43)) /\
   error_of 6 KRouting = ExtNotReferenced 43) /\
  (let chain := [(KRouting, 60)] in
   referenced (get_nh ex_misplaced) 43 chain 60 /\ maximal (get_nh ex_misplaced) chain 60 /\
   unreferenced (get_nh ex_misplaced) chain = [KDestOpts; KFragment; KAuth] /\
   next_header ex_misplaced 43 = Err (ExtNotReferenced 60)) /\
  (let chain := [(KRouting, 51); (KAuth, 44); (KFragment, 0)] in
   referenced (get_nh ex_late_hop) 43 chain 0 /\ maximal (get_nh ex_late_hop) chain 0 /\
   unreferenced (get_nh ex_late_hop) chain = [KHopByHop] /\
   next_header ex_late_hop 43 = Err HopByHopNotAtStart /\ error_of 0 KHopByHop = HopByHopNotAtStart).
Proof.
  (* `referenced` and `maximal` from their boolean forms *)
  assert (R : forall get first chain next,
             forallb (fun p => match get (fst p) with Some a => a =? snd p | None => false end) chain = true ->
             NoDup (map fst chain) -> slot_orderb [] (map fst chain) = true -> linked first chain next ->
             referenced get first chain next).
  { intros get first chain next F N S L. split; [|split; [exact N|split; [now apply slot_orderb_sound|exact L]]].
    apply Forall_forall. intros p I. rewrite forallb_forall in F. specialize (F p I). unfold is_header_of.
    destruct (get (fst p)); [|discriminate]. apply N.eqb_eq in F. now subst. }
  assert (M : forall get chain next,
             (forall k, match get k with
                        | Some _ => (ip_number_of k =? next) && negb (has k (map fst chain))
                                    && may_followb (map fst chain) k
                        | None => false end = false) ->
             maximal get chain next).
  { intros get chain next H k nh (E & G & NI & MF). specialize (H k). rewrite G in H.
    apply N.eqb_eq in E. apply has_not_In in NI. apply may_followb_ok in MF. rewrite E, NI, MF in H. discriminate. }
  (* the three cases alike: the chain is referenced, cannot be continued, the rest by evaluation *)
  cbv zeta. split; [|split].
  all: split; [apply R; [reflexivity|repeat constructor; cbn; intuition discriminate|reflexivity|cbn; repeat split]|].
  all: split; [apply M; intros k; destruct k; reflexivity|].
  all: vm_compute; repeat split.
Qed.

(* Ipv4Extensions: the chain is the authentication header or empty *)
Example C12_ex_v4_chain :
  let e := mkExts4 (Some (mkAuth 6 1 2 1 [1; 2; 3; 4])) in
  (Permutation [(KAuth, 6)] (in_rfc_order (get_nh4 e)) /\ slot_order [KAuth] /\ linked 51 [(KAuth, 6)] 6) /\
  next_header4 e 51 = Ok 6 /\ fst (write4 e 51) = wire_bytes4 e [KAuth] /\
  next_header4 e 17 = Err (ExtNotReferenced 51) /\
  referenced (get_nh4 e) 17 [] 17 /\ unreferenced (get_nh4 e) [] = [KAuth] /\
  next_header4 (mkExts4 None) 51 = Ok 51 /\ write4 (mkExts4 None) 51 = ([], Ok tt) /\
  from_slice4 51 [] = Err (ALen (mkLenError 12 0 LIpAuthHeader 0)).
Proof.
  cbv zeta. split.
  - split; [apply Permutation_refl|]. split; [apply slot_orderb_sound; reflexivity|cbn; auto].
  - split; [reflexivity|]. split; [vm_compute; reflexivity|]. split; [reflexivity|].
    split; [apply referenced_nil|]. vm_compute. repeat split; reflexivity.
Qed.

(* every class of the final number for decode o write: 6 (no extension number) and 44 behind a fragment
   header (position filled: round trip holds although 44 is an extension number); 0 (error); 51 without an
   authentication header (C12_ex_needs_non_ext: LenError required 12, len 0, IpAuthHeader, offset 8 = all bytes) *)
Example C12_ex_decode_classes :
  (let e := mkExts6 None None None (Some (mkFrag 44 0 false 0)) None in
   next_header e 44 = Ok 44 /\ is_ext_number 44 = true /\ decide false (present_kinds e) 44 = DRefilled /\
   from_slice 44 (fst (write e 44)) = Ok (e, 44, [])) /\
  (let e := mkExts6 None None None (Some (mkFrag 51 0 false 0)) None in
   next_header e 44 = Ok 51 /\ decide false (present_kinds e) 51 = DTake KAuth /\
   from_slice 44 (fst (write e 44)) = Err (HLen (mkLenError 12 0 LIpAuthHeader 8))) /\
  (let e := mkExts6 None None None (Some (mkFrag 0 0 false 0)) None in
   next_header e 44 = Ok 0 /\ from_slice 44 (fst (write e 44)) = Err HHopByHopNotAtStart) /\
  (next_header exts6_default 0 = Ok 0 /\ write exts6_default 0 = ([], Ok tt) /\
   decide (is_nil (present_kinds exts6_default)) (present_kinds exts6_default) 0 = DTake KHopByHop /\
   from_slice 0 [] = Err (HLen (mkLenError 8 0 LIpv6ExtHeader 0))).
Proof. vm_compute. repeat split; reflexivity. Qed.

(* "decoding those bytes yields the same set and final number" through EVERY decoder of the written
   bytes (the lax / reader theorems need `bytes_ok` of their input: the WRITTEN bytes are bytes).
   For every valid header set whose walk ends on a number the round trip can
   hold for (C12_decode_write_iff: no extension number, or the number of a filled position):
   the written bytes are bytes; from_slice, from_slice_lax (no stop error), read over a Cursor
   (everything consumed) and read_limited (LimitedReader with exactly the written length left,
   over a source that goes on with ANY further bytes `tail`, any chunking c and position p: the
   tail is not touched) all return (e, n).
   Lemmas: ExtChain/WrittenDecode.v (compositions; `write_bytes_ok` of ExtChain/Proofs.v). *)
From EP Require Import ExtChain.WrittenDecode.

Theorem C12_written_all_decoders : forall e first bs n, exts6_valid e = true ->
  write e first = (bs, Ok tt) -> next_header e first = Ok n ->
  (is_ext_number n = false \/ decide false (present_kinds e) n = DRefilled) ->
  bytes_ok bs /\
  from_slice first bs = Ok (e, n, []) /\
  from_slice_lax first bs = Ok (e, n, [], None) /\
  (exists s', read6 false first (mk_rstate (cursor bs) None) = (QOk (e, n), mk_rstate s' None) /\
              src_data s' = [] /\ src_pulled s' = len bs) /\
  (forall c p r tail, 1 <= c -> bytes_ok tail ->
     lr_read r <= lr_max r -> lr_max r - lr_read r = len bs ->
     exists m', read6 true first (mk_st (bs ++ tail) c p (MLim r))
                  = (QOk (e, n), mk_st tail c (p + len bs) m') /\
                view tail m' = [] /\ lim_of m' = true).
Proof. exact written_decoders6. Qed.
Print Assumptions C12_written_all_decoders.

(* the four decoders agree on ANY byte string the strict decoder consumes completely *)
Theorem C12_decoders_agree : forall first bs e n, bytes_ok bs ->
  from_slice first bs = Ok (e, n, []) -> all_decoders6 first bs e n.
Proof. exact decoders_agree6. Qed.
Print Assumptions C12_decoders_agree.

(* Ipv4Extensions: the round trip fails only for the empty set with first = 51 (C12_v4_decode_write_any) *)
Theorem C12_v4_written_all_decoders : forall e first bs n, exts4_valid e = true ->
  write4 e first = (bs, Ok tt) -> next_header4 e first = Ok n ->
  (is_some (auth4 e) || negb (n =? ip_number_of KAuth))%bool = true ->
  bytes_ok bs /\
  from_slice4 first bs = Ok (e, n, []) /\
  from_slice_lax4 first bs = Ok (e, n, [], None) /\
  (exists s', read4 false first (mk_rstate (cursor bs) None) = (QOk (e, n), mk_rstate s' None) /\
              src_data s' = [] /\ src_pulled s' = len bs) /\
  (forall c p r tail, 1 <= c -> bytes_ok tail ->
     lr_read r <= lr_max r -> lr_max r - lr_read r = len bs ->
     exists m', read4 true first (mk_st (bs ++ tail) c p (MLim r))
                  = (QOk (e, n), mk_st tail c (p + len bs) m') /\
                view tail m' = [] /\ lim_of m' = true).
Proof. exact written_decoders4. Qed.
Print Assumptions C12_v4_written_all_decoders.

Check (eq_refl : all_decoders6 = fun first bs e n =>
  bytes_ok bs /\
  from_slice first bs = Ok (e, n, []) /\
  from_slice_lax first bs = Ok (e, n, [], None) /\
  (exists s', read6 false first (mk_rstate (cursor bs) None) = (QOk (e, n), mk_rstate s' None) /\
              src_data s' = [] /\ src_pulled s' = len bs) /\
  (forall c p r tail, 1 <= c -> bytes_ok tail ->
     lr_read r <= lr_max r -> lr_max r - lr_read r = len bs ->
     exists m', read6 true first (mk_st (bs ++ tail) c p (MLim r))
                  = (QOk (e, n), mk_st tail c (p + len bs) m') /\
                view tail m' = [] /\ lim_of m' = true)).

(* non-vacuity: both classes of the final number (ex_perm: 6, no extension number; a fragment header
   announcing 44: filled position), a LimitedReader with exactly the written length over a longer
   source with chunks of 3 bytes; IPv4 authentication header *)
Example C12_ex_written_all_decoders :
  (exts6_valid ex_perm = true /\ snd (write ex_perm 51) = Ok tt /\ next_header ex_perm 51 = Ok 6 /\
   is_ext_number 6 = false /\
   from_slice_lax 51 (fst (write ex_perm 51)) = Ok (ex_perm, 6, [], None) /\
   fst (read6 false 51 (mk_rstate (cursor (fst (write ex_perm 51))) None)) = QOk (ex_perm, 6)) /\
  (let e := mkExts6 None None None (Some (mkFrag 44 0 false 0)) None in
   exts6_valid e = true /\ write e 44 = ([44; 0; 0; 0; 0; 0; 0; 0], Ok tt) /\ next_header e 44 = Ok 44 /\
   decide false (present_kinds e) 44 = DRefilled /\
   from_slice_lax 44 [44; 0; 0; 0; 0; 0; 0; 0] = Ok (e, 44, [], None) /\
   read6 true 44 (mk_st ([44; 0; 0; 0; 0; 0; 0; 0] ++ [1; 2; 3]) 3 7 (MLim (lr_new 8 LS_IPV6_PAYLOAD 40 L_IPV6H)))
     = (QOk (e, 44), mk_st [1; 2; 3] 3 15 (MLim (mk_limrd 8 LS_IPV6_PAYLOAD L_IPV6FRAG 40 8)))) /\
  (let e := mkExts4 (Some (mkAuth 6 1 2 1 [1; 2; 3; 4])) in
   exts4_valid e = true /\ write4 e 51 = ([6; 2; 0; 0; 0; 0; 0; 1; 0; 0; 0; 2; 1; 2; 3; 4], Ok tt) /\
   next_header4 e 51 = Ok 6 /\
   from_slice_lax4 51 [6; 2; 0; 0; 0; 0; 0; 1; 0; 0; 0; 2; 1; 2; 3; 4] = Ok (e, 6, [], None) /\
   fst (read4 true 51 (mk_st ([6; 2; 0; 0; 0; 0; 0; 1; 0; 0; 0; 2; 1; 2; 3; 4] ++ [9; 9]) 5 0
                          (MLim (lr_new 16 LS_IPV6_PAYLOAD 20 L_IPV6H)))) = QOk (e, 6)).
Proof. vm_compute. repeat split; reflexivity. Qed.
