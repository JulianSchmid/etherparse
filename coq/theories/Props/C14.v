(* Props/C14.v -- property C14: out-of-range lengths and values are rejected,
   never truncated.  Each theorem is the named lemma of the
   proof files; the Examples are test vectors checked by evaluation.

   Reading guide (definitions in Limits/Spec.v):
     c14_new r v R mx k good  : greatest R mx  /\  (r is Ok <-> R v)  /\
                                (R v -> r = Ok a with good a)  /\
                                (~R v -> r = Err {actual := v; max_allowed := mx; value_type := k})
     c14_set r h v R mx k good: the same for `&mut self` setters; r = (outcome, header
                                afterwards); on rejection the header afterwards is h itself
     c14_gen / c14_gen_set    : the same with the API's own error type (`bad v`)
   R / mx are the representability predicates and maxima of Spec.v, derived from
   the field widths; `good` says that the stored field, its wire bytes and the
   crate's own decoder give back the length (all `as uK` casts are identities).
   All statements hold for every N (no bound on the length), the builder ones
   for every slice length (< 2^63). *)
From EP Require Parse.ConstsAllOk.   (* every numeric `pub const` of the crate, regenerated from the source on every run, has its RFC / IANA value *)
From EP Require Import Base.Bytes Limits.Spec Limits.Model Limits.Proofs.
Local Open Scope N_scope.

(* ------------------------------------------------------------------ IPv4 *)
Theorem C14_ipv4_new : forall v rest,
  c14_new (ipv4_new v rest) v (ipv4_repr 0) (ipv4_max 0) Ipv4PayloadLength
    (fun h => v4_total_len h = ipv4_hdr_len 0 + v /\
              wire16 (to_be16 (v4_total_len h)) = Some (ipv4_hdr_len 0 + v) /\
              ipv4_payload_len h = Some v /\ v4_opt_len h = 0 /\ v4_rest h = rest).
Proof. exact ipv4_new_c14. Qed.
Print Assumptions C14_ipv4_new.

Theorem C14_ipv4_set_payload_len : forall h v, ipv4_wf h ->
  c14_set (ipv4_set_payload_len h v) h v (ipv4_repr (v4_opt_len h)) (ipv4_max (v4_opt_len h))
    Ipv4PayloadLength (ipv4_good h 0 v).
Proof. exact ipv4_set_payload_len_c14. Qed.
Print Assumptions C14_ipv4_set_payload_len.

Theorem C14_ipv4_options : forall n,
  c14_gen (ipv4_options_try_from n) n ipv4_opts_repr (fun bad_len => bad_len)
    (fun l => l = n /\ ipv4_opts_dec (l / 4 + 5) = n /\ fits 4 (l / 4 + 5) /\ l <= 40).
Proof. exact ipv4_options_try_from_c14. Qed.
Print Assumptions C14_ipv4_options.

Theorem C14_ipv4_set_options : forall h n,
  c14_gen_set (ipv4_set_options h n) h n ipv4_opts_repr (fun bad_len => bad_len)
    (fun h' => v4_opt_len h' = n /\ ipv4_wf h' /\
               (exists ihl, ipv4_ihl (E:=unit) h' = Ok ihl /\ fits 4 ihl /\ ipv4_opts_dec ihl = n) /\
               ipv4_header_len h' = ipv4_hdr_len n /\
               v4_total_len h' = v4_total_len h /\ v4_rest h' = v4_rest h).
Proof. exact ipv4_set_options_c14. Qed.
Print Assumptions C14_ipv4_set_options.

Theorem C14_ipv4_options_max : greatest ipv4_opts_repr ipv4_opts_max.
Proof. exact ipv4_opts_greatest. Qed.
Print Assumptions C14_ipv4_options_max.

(* ------------------------------------------------------------------ IPv6 *)
Theorem C14_ipv6_set_payload_length : forall h v,
  c14_set (ipv6_set_payload_length h v) h v ipv6_repr ipv6_max Ipv6PayloadLength (ipv6_good h v).
Proof. exact ipv6_set_payload_length_c14. Qed.
Print Assumptions C14_ipv6_set_payload_length.

(* ------------------------------------------- IpHeaders::set_payload_len *)
(* incl. the usize overflow path: holds for every v, also v + exts >= 2^64 *)
Theorem C14_ipheaders_v4 : forall h x v, ipv4_wf h -> v4exts_wf x ->
  c14_set (iph_set_payload_len (IpV4 h x) v) (IpV4 h x) v
    (iph4_repr (v4_opt_len h) (v4x_len x)) (iph4_max (v4_opt_len h) (v4x_len x)) Ipv4PayloadLength
    (fun s' => exists h', s' = IpV4 h' x /\ ipv4_good h (v4x_len x) v h' /\
                          iph4_dec (v4_opt_len h) (v4x_len x) (v4_total_len h') = v).
Proof. exact iph4_set_payload_len_c14. Qed.
Print Assumptions C14_ipheaders_v4.

Theorem C14_ipheaders_v6 : forall h x v, v6exts_wf x ->
  c14_set (iph_set_payload_len (IpV6 h x) v) (IpV6 h x) v
    (iph6_repr (v6x_len x)) (iph6_max (v6x_len x)) Ipv6PayloadLength
    (fun s' => exists h', s' = IpV6 h' x /\ ipv6_good h (v6x_len x + v) h' /\
                          iph6_dec (v6x_len x) (v6_payload_length h') = v).
Proof. exact iph6_set_payload_len_c14. Qed.
Print Assumptions C14_ipheaders_v6.

(* the model's header_len() of extension headers is the RFC length *)
Theorem C14_ext_lengths : forall x4 x6,
  v4exts_header_len x4 = v4x_len x4 /\ v6exts_header_len x6 = v6x_len x6.
Proof. exact (fun x4 x6 => conj (v4exts_header_len_spec x4) (v6exts_header_len_spec x6)). Qed.
Print Assumptions C14_ext_lengths.

(* ------------------------------------------------------------------- UDP *)
Theorem C14_udp_without_ipv4_checksum : forall rest v,
  c14_new (udp_without_ipv4_checksum rest v) v udp_repr udp_max UdpPayloadLengthIpv4
    (udp_good rest v false).
Proof. exact udp_without_ipv4_checksum_c14. Qed.
Print Assumptions C14_udp_without_ipv4_checksum.

Theorem C14_udp_with_ipv4_checksum : forall rest v,
  c14_new (udp_with_ipv4_checksum rest v) v udp_repr udp_max UdpPayloadLengthIpv4
    (udp_good rest v true).
Proof. exact udp_with_ipv4_checksum_c14. Qed.
Print Assumptions C14_udp_with_ipv4_checksum.

Theorem C14_udp_with_ipv6_checksum : forall rest v,
  c14_new (udp_with_ipv6_checksum rest v) v udp_repr udp_max UdpPayloadLengthIpv6
    (udp_good rest v true).
Proof. exact udp_with_ipv6_checksum_c14. Qed.
Print Assumptions C14_udp_with_ipv6_checksum.

(* calc_checksum_*: the check only; the pseudo header carries self.length *)
Theorem C14_udp_calc_checksum_ipv4 : forall h v,
  c14_new (udp_calc_checksum_ipv4 h v) v udp_repr udp_max UdpPayloadLengthIpv4
    (fun l => l = u_length h).
Proof. exact udp_calc_checksum_ipv4_c14. Qed.
Print Assumptions C14_udp_calc_checksum_ipv4.

Theorem C14_udp_calc_checksum_ipv6 : forall h v,
  c14_new (udp_calc_checksum_ipv6 h v) v udp6_pseudo_repr udp6_pseudo_max UdpPayloadLengthIpv6
    (fun l => l = u_length h).
Proof. exact udp_calc_checksum_ipv6_c14. Qed.
Print Assumptions C14_udp_calc_checksum_ipv6.

(* ------------------------------------------------------------------- TCP *)
Theorem C14_tcp_calc_checksum_ipv4 : forall h v, tcp_wf h ->
  c14_new (tcp_calc_checksum_ipv4 h v) v (tcp4_repr (tcp_hdr_len (t_opt_len h)))
    (tcp4_max (tcp_hdr_len (t_opt_len h))) TcpPayloadLengthIpv4
    (fun l => l = tcp_hdr_len (t_opt_len h) + v /\
              wire16 (to_be16 l) = Some (tcp_hdr_len (t_opt_len h) + v)).
Proof. exact tcp_calc_checksum_ipv4_c14. Qed.
Print Assumptions C14_tcp_calc_checksum_ipv4.

Theorem C14_tcp_calc_checksum_ipv6 : forall h v, tcp_wf h ->
  c14_new (tcp_calc_checksum_ipv6 h v) v (tcp6_repr (tcp_hdr_len (t_opt_len h)))
    (tcp6_max (tcp_hdr_len (t_opt_len h))) TcpPayloadLengthIpv6
    (fun l => l = tcp_hdr_len (t_opt_len h) + v /\ l < 2 ^ 32).
Proof. exact tcp_calc_checksum_ipv6_c14. Qed.
Print Assumptions C14_tcp_calc_checksum_ipv6.

Theorem C14_tcp_header_slice_ipv4 : forall sl v, sl <= 60 ->
  c14_new (tcphs_calc_checksum_ipv4 sl v) v (tcp4_repr sl) (tcp4_max sl) TcpPayloadLengthIpv4
    (fun l => l = sl + v /\ wire16 (to_be16 l) = Some (sl + v)).
Proof. exact tcphs_calc_checksum_ipv4_c14. Qed.
Print Assumptions C14_tcp_header_slice_ipv4.

Theorem C14_tcp_header_slice_ipv6 : forall sl v, sl <= 60 ->
  c14_new (tcphs_calc_checksum_ipv6 sl v) v (tcp6_repr sl) (tcp6_max sl) TcpPayloadLengthIpv6
    (fun l => l = sl + v /\ l < 2 ^ 32).
Proof. exact tcphs_calc_checksum_ipv6_c14. Qed.
Print Assumptions C14_tcp_header_slice_ipv6.

Theorem C14_tcp_slice_ipv4 : forall sl,
  c14_new (tcpslice_calc_checksum_ipv4 sl) sl (tcp4_repr 0) (tcp4_max 0) TcpPayloadLengthIpv4
    (fun l => l = sl /\ wire16 (to_be16 l) = Some sl).
Proof. exact tcpslice_calc_checksum_ipv4_c14. Qed.
Print Assumptions C14_tcp_slice_ipv4.

Theorem C14_tcp_slice_ipv6 : forall sl,
  c14_new (tcpslice_calc_checksum_ipv6 sl) sl (tcp6_repr 0) (tcp6_max 0) TcpPayloadLengthIpv6
    (fun l => l = sl /\ l < 2 ^ 32).
Proof. exact tcpslice_calc_checksum_ipv6_c14. Qed.
Print Assumptions C14_tcp_slice_ipv6.

(* ---------------------------------------------------------------- ICMPv6 *)
Theorem C14_icmpv6_calc_checksum : forall v,
  c14_new (icmpv6_calc_checksum v) v icmp6_repr icmp6_max Icmpv6PayloadLength
    (fun l => l = icmp6_hdr + v /\ l < 2 ^ 32).
Proof. exact icmpv6_calc_checksum_c14. Qed.
Print Assumptions C14_icmpv6_calc_checksum.

(* ---------------------------------------------------------------- MACsec *)
Theorem C14_macsec_set_payload_len : forall h v,
  c14_macsec (macsec_set_payload_len h v) (m_unmodified h) v
    m_short_len macsec_sl_byte macsec_expected_payload_len
    (fun h' => m_unmodified h' = m_unmodified h /\ m_rest h' = m_rest h).
Proof. exact macsec_set_payload_len_c14. Qed.
Print Assumptions C14_macsec_set_payload_len.

Theorem C14_macsec_short_len_from_len : forall v,
  (macsec_repr false v -> macsec_short_len_from_len v = v) /\
  (~ macsec_repr false v -> macsec_short_len_from_len v = macsec_unknown).
Proof. exact macsec_short_len_from_len_c14. Qed.
Print Assumptions C14_macsec_short_len_from_len.

Theorem C14_macsec_short_len_try_from_u8 : forall v,
  c14_new (macsec_short_len_try_from_u8 v) v (fits 6) (field_max 6) MacsecShortLen (fun s => s = v).
Proof. exact macsec_short_len_try_from_u8_c14. Qed.
Print Assumptions C14_macsec_short_len_try_from_u8.

(* -------------------------------------------------------------------- AH *)
Theorem C14_ah_new : forall rest n, c14_gen (ah_new rest n) n ah_repr ah_bad (ah_good rest n).
Proof. exact ah_new_c14. Qed.
Print Assumptions C14_ah_new.

Theorem C14_ah_set_raw_icv : forall h n,
  c14_gen_set (ah_set_raw_icv h n) h n ah_repr ah_bad (ah_good (a_rest h) n).
Proof. exact ah_set_raw_icv_c14. Qed.
Print Assumptions C14_ah_set_raw_icv.

Theorem C14_ah_max : greatest ah_repr ah_max.
Proof. exact ah_greatest. Qed.
Print Assumptions C14_ah_max.

(* ------------------------------------------------ IPv6 extension headers *)
Theorem C14_ext_new_raw : forall rest n,
  c14_gen (rawext_new_raw rest n) n ext_repr ext_bad (ext_good rest n).
Proof. exact rawext_new_raw_c14. Qed.
Print Assumptions C14_ext_new_raw.

Theorem C14_ext_set_payload : forall h n,
  c14_gen_set (rawext_set_payload h n) h n ext_repr ext_bad (ext_good (e_rest h) n).
Proof. exact rawext_set_payload_c14. Qed.
Print Assumptions C14_ext_set_payload.

Theorem C14_ext_max_min : greatest ext_repr ext_max /\ least ext_repr ext_min.
Proof. exact ext_greatest. Qed.
Print Assumptions C14_ext_max_min.

(* ----------------------------------------------------------- TCP options *)
Theorem C14_tcp_options_from_slice : forall n,
  c14_gen (tcp_options_try_from_slice n) n tcp_opts_repr (fun not_enough_space => not_enough_space)
    (tcp_opts_good n).
Proof. exact tcp_options_try_from_slice_c14. Qed.
Print Assumptions C14_tcp_options_from_slice.

Theorem C14_tcp_options_from_elements : forall sizes,
  c14_gen (tcp_options_try_from_elements sizes) (nsum sizes) tcp_opts_repr
    (fun not_enough_space => not_enough_space) (tcp_opts_good (nsum sizes)).
Proof. exact tcp_options_try_from_elements_c14. Qed.
Print Assumptions C14_tcp_options_from_elements.

Theorem C14_tcp_set_options_raw : forall h n,
  c14_gen_set (tcp_set_options_raw h n) h n tcp_opts_repr (fun nes => nes) (tcp_set_good h n).
Proof. exact tcp_set_options_raw_c14. Qed.
Print Assumptions C14_tcp_set_options_raw.

Theorem C14_tcp_set_options : forall h sizes,
  c14_gen_set (tcp_set_options h sizes) h (nsum sizes) tcp_opts_repr (fun nes => nes)
    (tcp_set_good h (nsum sizes)).
Proof. exact tcp_set_options_c14. Qed.
Print Assumptions C14_tcp_set_options.

Theorem C14_tcp_options_max : greatest tcp_opts_repr tcp_opts_max.
Proof. exact tcp_opts_greatest. Qed.
Print Assumptions C14_tcp_options_max.

(* ------------------------------------------------------------------- ARP *)
Theorem C14_arp_new : forall rest hw pr,
  (arp_repr hw -> arp_repr pr ->
     arp_new rest hw pr hw pr = Ok {| ar_hw_size := hw; ar_proto_size := pr; ar_rest := rest |}) /\
  (~ arp_repr hw -> arp_new rest hw pr hw pr = Err (ArpHwTooBig hw)) /\
  (arp_repr hw -> ~ arp_repr pr -> arp_new rest hw pr hw pr = Err (ArpProtoTooBig pr)) /\
  ((exists a, arp_new rest hw pr hw pr = Ok a) <-> arp_repr hw /\ arp_repr pr).
Proof. exact arp_new_c14. Qed.
Print Assumptions C14_arp_new.

Theorem C14_arp_new_non_matching : forall rest shw sp thw tp,
  (shw <> thw -> arp_new rest shw sp thw tp = Err (ArpHwNonMatching shw thw)) /\
  (shw = thw -> sp <> tp -> arp_new rest shw sp thw tp = Err (ArpProtoNonMatching sp tp)).
Proof. exact arp_new_non_matching. Qed.
Print Assumptions C14_arp_new_non_matching.

Theorem C14_arp_set_hw_addrs : forall h n,
  c14_gen_set (arp_set_hw_addrs h n n) h n arp_repr ArpHwTooBig
    (fun h' => ar_hw_size h' = n /\ ar_proto_size h' = ar_proto_size h /\ ar_rest h' = ar_rest h).
Proof. exact arp_set_hw_addrs_c14. Qed.
Print Assumptions C14_arp_set_hw_addrs.

Theorem C14_arp_set_protocol_addrs : forall h n,
  c14_gen_set (arp_set_protocol_addrs h n n) h n arp_repr ArpProtoTooBig
    (fun h' => ar_proto_size h' = n /\ ar_hw_size h' = ar_hw_size h /\ ar_rest h' = ar_rest h).
Proof. exact arp_set_protocol_addrs_c14. Qed.
Print Assumptions C14_arp_set_protocol_addrs.

Theorem C14_arp_set_non_matching : forall h s t, s <> t ->
  arp_set_hw_addrs h s t = (Err (ArpHwNonMatching s t), h) /\
  arp_set_protocol_addrs h s t = (Err (ArpProtoNonMatching s t), h).
Proof. exact arp_set_non_matching. Qed.
Print Assumptions C14_arp_set_non_matching.

Theorem C14_arp_max : greatest arp_repr arp_max.
Proof. exact arp_greatest. Qed.
Print Assumptions C14_arp_max.

(* --------------------------------------------------------- PacketBuilder *)
(* the error names the IP payload length (extensions + transport header +
   payload) and its maximum; the last clause relates that maximum to the
   greatest acceptable payload *)
Theorem C14_build_ipv4 : forall ip x t v,
  ipv4_wf ip -> v4exts_wf x -> transport_wf t -> slice_len_ok v ->
  let o := v4_opt_len ip in
  let e := v4x_len x in
  let tl := transport_header_len t in
  greatest (build4_repr o e tl) (build4_max o e tl) /\
  (t <> TIcmpv6 -> ((exists b, build_ipv4 ip x t v = Ok b) <-> build4_repr o e tl v)) /\
  (build4_repr o e tl v -> t <> TIcmpv6 ->
     exists b, build_ipv4 ip x t v = Ok b /\ built_good (ipv4_hdr_len o + e + tl + v) t v b) /\
  (build4_repr o e tl v -> t = TIcmpv6 -> build_ipv4 ip x t v = Err BIcmpv6InIpv4) /\
  (~ build4_repr o e tl v ->
     build_ipv4 ip x t v = Err (BPayloadLen (mk_vtb (e + tl + v) (ipv4_max o) Ipv4PayloadLength)) /\
     ipv4_max o = build4_max o e tl + (e + tl)).
Proof. exact build_ipv4_c14. Qed.
Print Assumptions C14_build_ipv4.

Theorem C14_build_ipv6 : forall ip x t v,
  v6exts_wf x -> transport_wf t -> slice_len_ok v ->
  let e := v6x_len x in
  let tl := transport_header_len t in
  greatest (build6_repr e tl) (build6_max e tl) /\
  ((exists b, build_ipv6 ip x t v = Ok b) <-> build6_repr e tl v) /\
  (build6_repr e tl v ->
     exists b, build_ipv6 ip x t v = Ok b /\ built_good (e + tl + v) t v b /\
               (t = TIcmpv6 -> b_pseudo_len b = Some (icmp6_hdr + v))) /\
  (~ build6_repr e tl v ->
     build_ipv6 ip x t v = Err (BPayloadLen (mk_vtb (e + tl + v) ipv6_max Ipv6PayloadLength)) /\
     ipv6_max = build6_max e tl + (e + tl)).
Proof. exact build_ipv6_c14. Qed.
Print Assumptions C14_build_ipv6.

Theorem C14_build_size : forall lv net t v, lv + net + transport_header_len t + v < 2 ^ 64 ->
  build_size lv net t v = Ok (lv + net + transport_header_len t + v).
Proof. exact build_size_eq. Qed.
Print Assumptions C14_build_size.

(* the boolean deciders the runner uses for the specification column are exact *)
Theorem C14_deciders : forall a b c d,
  (ipv4_reprb a b = true <-> ipv4_repr a b) /\ (iph4_reprb a b c = true <-> iph4_repr a b c) /\
  (ipv6_reprb a = true <-> ipv6_repr a) /\ (iph6_reprb a b = true <-> iph6_repr a b) /\
  (udp_reprb a = true <-> udp_repr a) /\ (udp6_pseudo_reprb a = true <-> udp6_pseudo_repr a) /\
  (tcp4_reprb a b = true <-> tcp4_repr a b) /\ (tcp6_reprb a b = true <-> tcp6_repr a b) /\
  (icmp6_reprb a = true <-> icmp6_repr a) /\ (ipv4_opts_reprb a = true <-> ipv4_opts_repr a) /\
  (tcp_opts_reprb a = true <-> tcp_opts_repr a) /\ (ah_reprb a = true <-> ah_repr a) /\
  (ext_reprb a = true <-> ext_repr a) /\ (arp_reprb a = true <-> arp_repr a) /\
  (build4_reprb a b c d = true <-> build4_repr a b c d) /\
  (build6_reprb a b c = true <-> build6_repr a b c) /\
  (forall u, macsec_reprb u a = true <-> macsec_repr u a).
Proof.
  exact deciders_spec.
Qed.
Print Assumptions C14_deciders.

(* ------------------------------------------------------------ non-vacuity *)
(* hypotheses are satisfiable, both outcomes occur, the limits are the ones of
   the wire formats (values by computation) *)
Example C14_ex_limits :
  ipv4_max 0 = 65515 /\ ipv4_max 40 = 65475 /\ ipv6_max = 65535 /\ udp_max = 65527 /\
  udp6_pseudo_max = 4294967287 /\ tcp4_max 60 = 65475 /\ tcp6_max 20 = 4294967275 /\
  icmp6_max = 4294967287 /\ macsec_max true = 61 /\ macsec_max false = 63 /\ ah_max = 1016 /\
  ext_min = 6 /\ ext_max = 2046 /\ ipv4_opts_max = 40 /\ tcp_opts_max = 40 /\ arp_max = 255.
Proof. vm_compute. repeat split. Qed.

Example C14_ex_v4set :
  let h := {| v4_total_len := 7; v4_opt_len := 8; v4_rest := 1 |} in
  ipv4_wf h /\
  ipv4_set_payload_len h 65507 = (Ok tt, {| v4_total_len := 65535; v4_opt_len := 8; v4_rest := 1 |}) /\
  ipv4_set_payload_len h 65508 = (Err (mk_vtb 65508 65507 Ipv4PayloadLength), h) /\
  ipv4_set_payload_len h (65508 + 65536) = (Err (mk_vtb 131044 65507 Ipv4PayloadLength), h).
Proof. cbv zeta. split; [unfold ipv4_wf; cbn; lia|]. vm_compute. repeat split. Qed.

Example C14_ex_ipheaders :
  let h := {| v4_total_len := 50; v4_opt_len := 4; v4_rest := 1 |} in
  ipv4_wf h /\ v4exts_wf (Some 3) /\ v4x_len (Some 3) = 24 /\
  fst (iph_set_payload_len (IpV4 h (Some 3)) 65487) = Ok tt /\
  fst (iph_set_payload_len (IpV4 h (Some 3)) 65488) = Err (mk_vtb 65488 65487 Ipv4PayloadLength) /\
  fst (iph_set_payload_len (IpV4 h (Some 3)) 18446744073709551615)
    = Err (mk_vtb 18446744073709551615 65487 Ipv4PayloadLength) /\
  v6exts_wf {| x_hop := Some 0; x_dst := None; x_route := Some (1, Some 2); x_frag := true; x_auth := Some 3 |}.
Proof.
  cbv zeta. split; [unfold ipv4_wf; cbn; lia|]. split; [cbn; lia|].
  repeat split; try (vm_compute; reflexivity); cbn; lia.
Qed.

Example C14_ex_macsec :
  let h := {| m_unmodified := true; m_short_len := 5; m_rest := 9 |} in
  snd (macsec_set_payload_len h 61) = {| m_unmodified := true; m_short_len := 63; m_rest := 9 |} /\
  snd (macsec_set_payload_len h 62) = {| m_unmodified := true; m_short_len := 0; m_rest := 9 |} /\
  snd (macsec_set_payload_len h (61 + 256)) = {| m_unmodified := true; m_short_len := 0; m_rest := 9 |} /\
  macsec_expected_payload_len (snd (macsec_set_payload_len h 61)) = Some 61.
Proof. vm_compute. repeat split. Qed.

Example C14_ex_alignment :
  ah_new 0 1016 = Ok {| a_raw_icv_len := 254; a_rest := 0 |} /\ ah_new 0 1020 = Err (IcvTooBig 1020) /\
  ah_new 0 1014 = Err (IcvUnaligned 1014) /\
  rawext_new_raw 0 2046 = Ok {| e_header_length := 255; e_rest := 0 |} /\
  rawext_new_raw 0 2054 = Err (ExtTooBig 2054) /\ rawext_new_raw 0 5 = Err (ExtTooSmall 5) /\
  rawext_new_raw 0 15 = Err (ExtUnaligned 15) /\
  tcp_options_try_from_slice 37 = Ok 40 /\ tcp_options_try_from_slice 41 = Err 41 /\
  tcp_options_try_from_elements [34; 3] = Ok 40 /\ tcp_options_try_from_elements [34; 3; 4] = Err 41.
Proof. vm_compute. repeat split. Qed.

Example C14_ex_builder :
  let ip := {| v4_total_len := 0; v4_opt_len := 8; v4_rest := 1 |} in
  ipv4_wf ip /\ transport_wf (TTcp {| t_opt_len := 40; t_rest := 0 |}) /\ slice_len_ok 65476 /\
  build_ipv4 ip (Some 3) TUdp 65475
    = Ok {| b_ip_len := 65535; b_udp_len := Some 65483; b_pseudo_len := Some 65483 |} /\
  build_ipv4 ip (Some 3) TUdp 65476 = Err (BPayloadLen (mk_vtb 65508 65507 Ipv4PayloadLength)).
Proof.
  cbv zeta. split; [unfold ipv4_wf; cbn; lia|]. split; [cbn; unfold tcp_wf; cbn; lia|].
  split; [unfold slice_len_ok; lia|]. vm_compute. repeat split.
Qed.

(* PacketBuilder size() (final_size) without the hypothesis "the sum fits usize" of
   C14_build_size.  Lemmas: Limits/BuildSize.v (about the model `build_size`). *)
From EP Require Import Limits.BuildSize.

(* for ALL arguments: Ok s exactly when s is the mathematical sum and the sum is below 2^64
   (usize of a 64-bit target); otherwise -- and only then -- a debug overflow panic of one of the
   three additions (sites 193..195 of Limits/Model.v); never an Err *)
Theorem C14_build_size_exact : forall lv net t v,
  let sum := lv + net + transport_header_len t + v in
  (forall s, build_size lv net t v = Ok s <-> s = sum /\ sum < 2 ^ 64) /\
  (2 ^ 64 <= sum <->
     exists site, build_size lv net t v = Panic site /\ (site = 193 \/ site = 194 \/ site = 195)) /\
  (forall e, build_size lv net t v <> Err e).
Proof. exact build_size_exact. Qed.
Print Assumptions C14_build_size_exact.

(* under the bounds the Rust types give -- link + vlan and network header lengths are sums of a few
   u8-derived sizes (far below 2^32), TCP options <= 40 / ICMPv4 header <= 20 (transport_wf), a
   slice length is below 2^63 (slice_len_ok) -- the sum always fits: size() never overflows *)
Theorem C14_build_size_total : forall lv net t v,
  lv < 2 ^ 32 -> net < 2 ^ 32 -> transport_wf t -> slice_len_ok v ->
  build_size lv net t v = Ok (lv + net + transport_header_len t + v).
Proof. exact build_size_bounds. Qed.
Print Assumptions C14_build_size_total.

(* the same with the network part spelled out as in final_size: IPv4 header_len() + extensions
   header_len(), resp. Ipv6Header::LEN + extensions header_len(), of well-formed header values;
   link header (Ethernet II 14 / Linux SLL 16) + VLAN (0 / 4 / 8) is at most 24 *)
Theorem C14_build_size_ipv4 : forall lv ip x t v,
  lv <= 24 -> ipv4_wf ip -> v4exts_wf x -> transport_wf t -> slice_len_ok v ->
  build_size lv (ipv4_header_len ip + v4exts_header_len x) t v =
    Ok (lv + (ipv4_header_len ip + v4exts_header_len x) + transport_header_len t + v).
Proof. exact build_size_ipv4. Qed.
Print Assumptions C14_build_size_ipv4.

Theorem C14_build_size_ipv6 : forall lv x t v,
  lv <= 24 -> v6exts_wf x -> transport_wf t -> slice_len_ok v ->
  build_size lv (40 + v6exts_header_len x) t v =
    Ok (lv + (40 + v6exts_header_len x) + transport_header_len t + v).
Proof. exact build_size_ipv6. Qed.
Print Assumptions C14_build_size_ipv6.

(* non-vacuity: the largest slice length with full-size headers fits; the open case (only
   reachable with a payload_size argument that is no slice length) panics *)
Example C14_ex_build_size :
  let ip := {| v4_total_len := 0; v4_opt_len := 40; v4_rest := 1 |} in
  let t := TTcp {| t_opt_len := 40; t_rest := 0 |} in
  ipv4_wf ip /\ v4exts_wf (Some 254) /\ transport_wf t /\ slice_len_ok 9223372036854775807 /\
  build_size 22 (ipv4_header_len ip + v4exts_header_len (Some 254)) t 9223372036854775807
    = Ok 9223372036854776977 /\
  build_size 14 20 TUdp 18446744073709551615 = Panic 195 /\
  build_size 14 20 TUdp 18446744073709551573 = Ok 18446744073709551615.
Proof.
  cbv zeta. split; [unfold ipv4_wf; cbn; lia|]. split; [cbn; unfold o8; cbn; lia|].
  split; [cbn; unfold tcp_wf; cbn; lia|].
  split; [unfold slice_len_ok; lia|]. vm_compute. repeat split.
Qed.
