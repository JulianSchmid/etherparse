(* Props/C03.v -- property C03: strict packet slicing matches the wire formats
   for every byte string.  Each theorem is the named lemma of the
   proof files; the Examples are test vectors checked by evaluation.

   Model : Parse/Slices.v + Parse/Cursor.v (transliteration of the crate's slicers
           and of SlicedPacketCursor; sub-slices are (pointer offset, contents))
   Spec  : Parse/WireSpec.v (reference decoder over absolute positions, written
           from the formats)
   `vres_of` maps a model result to what an observer sees (windows, protocol
   numbers, fragmentation flags, length sources); `c03_rel` demands equal accepted
   packets and the same rejection cause (layer / required / available, or the
   same content error with the same offending value). *)
From EP Require Parse.GenAccessOk.   (* the field accessors, re-translated from the Rust source on every run (Gen/Accessors.v), equal the hand models the theorems below are about *)
From EP Require Parse.ConstsAllOk.   (* every numeric `pub const` of the crate, regenerated from the source on every run, has its RFC / IANA value *)
From EP Require Parse.ConstsOk.
From EP Require Import Base.Bytes Parse.Types Parse.Slices Parse.Cursor Parse.View
  Parse.WireSpec Parse.StrictProofs.

Theorem C03_from_ethernet : forall bs, bytes_ok bs ->
  c03_rel (vres_of (SlicedPacket.from_ethernet bs)) (wire_ethernet bs).
Proof. exact (fun bs H => res_rel_c03 _ _ (from_ethernet_rel bs H)). Qed.
Print Assumptions C03_from_ethernet.

Theorem C03_from_linux_sll : forall bs, bytes_ok bs ->
  c03_rel (vres_of (SlicedPacket.from_linux_sll bs)) (wire_linux_sll bs).
Proof. exact (fun bs H => res_rel_c03 _ _ (from_linux_sll_rel bs H)). Qed.
Print Assumptions C03_from_linux_sll.

Theorem C03_from_ether_type : forall bs et, bytes_ok bs ->
  c03_rel (vres_of (SlicedPacket.from_ether_type et bs)) (wire_ether_type bs et).
Proof. exact (fun bs et H => res_rel_c03 _ _ (from_ether_type_rel bs et H)). Qed.
Print Assumptions C03_from_ether_type.

Theorem C03_from_ip : forall bs, bytes_ok bs ->
  c03_rel (vres_of (SlicedPacket.from_ip bs)) (wire_from_ip bs).
Proof. exact (fun bs H => res_rel_c03 _ _ (from_ip_rel bs H)). Qed.
Print Assumptions C03_from_ip.

(* by-product (feeds C01/C02 for the strict slicing path): no unchecked read,
   from_raw_parts, unwrap, subtraction or loop bound of the model fails *)
Theorem C03_strict_never_bug : forall bs et b, bytes_ok bs ->
  SlicedPacket.from_ethernet bs <> Bug b /\ SlicedPacket.from_linux_sll bs <> Bug b /\
  SlicedPacket.from_ether_type et bs <> Bug b /\ SlicedPacket.from_ip bs <> Bug b.
Proof. exact strict_never_bug. Qed.
Print Assumptions C03_strict_never_bug.

(* non-vacuity: Ethernet / VLAN / IPv4 / UDP is accepted with the expected layout;
   the same packet cut inside the UDP header is rejected at the IPv4 layer (offset 18): the
   total length field asks for 32 octets, 23 are left *)
Definition ex_pkt : bytes :=
  [1;2;3;4;5;6; 7;8;9;10;11;12; 129;0;  0;5; 8;0;
   69;0;0;32; 0;0;0;0; 64;17;0;0; 1;2;3;4; 5;6;7;8;
   0;1;0;2;0;12;0;0; 170;187;204;221].
Example C03_ex_ok :
  bytes_ok ex_pkt /\
  wire_ethernet ex_pkt =
    VOk (mkVPacket (Some (VEthernet2 (0, 50))) [VVlan (14, 36)]
           (Some (VIpv4 (18, 20) None (mkVIp 17 false LsIpv4HeaderTotalLen (38, 12))))
           (Some (VUdp (38, 12)))) /\
  vres_of (SlicedPacket.from_ethernet ex_pkt) = wire_ethernet ex_pkt.
Proof. split; [apply bytes_okb_spec; vm_compute; reflexivity|]. vm_compute. repeat split. Qed.
Example C03_ex_cut :
  vres_of (SlicedPacket.from_ethernet (firstn 41 ex_pkt)) =
    VErr (ELen (mkLenError 32 23 LsSlice LyIpv4Packet 18)).
Proof. vm_compute; reflexivity. Qed.

(* ==== header FIELD VALUES ==========================================================
   Spec  : Parse/Fields.v `spec_fields bs v` -- per layer of the view the list of
           (field tag, value) the formats prescribe for the bytes at the layer's ABSOLUTE
           position (B/W readers of Parse/WireSpec.v; sub-octet fields as bit ranges in the
           RFC numbering, BitFields/Spec.v): Ethernet II, Linux SLL, 802.1Q, MACsec SecTAG,
           ARP, IPv4 (+options), AH, IPv6, every extension header of the chain (raw /
           fragment / AH), UDP, TCP (+9 flags, options), ICMPv4, ICMPv6.
   Model : Parse/Fields.v `fields_of_packet p` -- the same list through the ACCESSOR models
           of Parse/Access.v (C01) applied to the slices stored in the strict result.
   For every byte string: when the strict slicer accepts, (1) the reference decoder accepts
   with exactly the layers / windows of the result (C03 above) and (2) every RAW HEADER-FIELD
   accessor of every layer (the accessors to_header() reads; list: notes/C03.md section 3)
   returns the field of the format at that layer's absolute position.  All layer kinds are
   covered (nothing `_partial`).  Three fields have no slice accessor and are derived: MACsec V
   (bit 0x80 of tci_an_raw()), AH payload length and the extension length octet (to_header()).
   Derived / typed accessors (MacsecHeaderSlice::ptype / next_ether_type / header_len /
   expected_payload_len / is_unmodified, Ipv4HeaderSlice::payload_len / is_fragmenting_payload,
   Ipv6HeaderSlice::dscp / ecn, Ipv6FragmentHeaderSlice::is_fragmenting_payload,
   LinuxSllHeaderSlice::sender_address, Ethernet2Slice::fcs, payload_slice() / header_slice() /
   payload() windows, UdpSlice::payload_len_source, header_len(), the IP payload descriptors)
   are not in THIS theorem family; they are the `C03_fields2_from_X` family at the end of this
   file.  icmp_type() / header() (typed ICMP messages) and TCP option elements are C17 / C13. *)
From EP Require Import Parse.Access Parse.Fields Parse.FieldsProofs.

Theorem C03_fields_from_ethernet : forall bs p, bytes_ok bs ->
  SlicedPacket.from_ethernet bs = Ok p ->
  wire_ethernet bs = VOk (view p) /\ fields_of_packet p = Ok (spec_fields bs (view p)).
Proof. exact fields_wire_from_ethernet. Qed.
Print Assumptions C03_fields_from_ethernet.

Theorem C03_fields_from_linux_sll : forall bs p, bytes_ok bs ->
  SlicedPacket.from_linux_sll bs = Ok p ->
  wire_linux_sll bs = VOk (view p) /\ fields_of_packet p = Ok (spec_fields bs (view p)).
Proof. exact fields_wire_from_linux_sll. Qed.
Print Assumptions C03_fields_from_linux_sll.

Theorem C03_fields_from_ether_type : forall bs et p, bytes_ok bs ->
  SlicedPacket.from_ether_type et bs = Ok p ->
  wire_ether_type bs et = VOk (view p) /\ fields_of_packet p = Ok (spec_fields bs (view p)).
Proof. exact fields_wire_from_ether_type. Qed.
Print Assumptions C03_fields_from_ether_type.

Theorem C03_fields_from_ip : forall bs p, bytes_ok bs ->
  SlicedPacket.from_ip bs = Ok p ->
  wire_from_ip bs = VOk (view p) /\ fields_of_packet p = Ok (spec_fields bs (view p)).
Proof. exact fields_wire_from_ip. Qed.
Print Assumptions C03_fields_from_ip.

(* non-vacuity: the Ethernet / VLAN / IPv4 / UDP packet above, and IPv6 (traffic class 0xab,
   flow label 0xcdef1) / hop-by-hop / fragment (offset 0, M 0) / TCP with NS, ACK, SYN set *)
Example C03_fields_ex :
  exists p, SlicedPacket.from_ethernet ex_pkt = Ok p /\
    fields_of_packet p =
      Ok [(LEth, [(Fdst, FvN 1108152157446); (Fsrc, FvN 7731092785932); (Fether_type, FvN 33024)]);
          (LVlan, [(Fpcp, FvN 0); (Fdei, FvB false); (Fvid, FvN 5); (Fether_type, FvN 2048)]);
          (LIpv4, [(Fversion, FvN 4); (Fihl, FvN 5); (Fdscp, FvN 0); (Fecn, FvN 0); (Ftotal_len, FvN 32);
                   (Fident, FvN 0); (Fdf, FvB false); (Fmf, FvB false); (Ffrag_off, FvN 0); (Fttl, FvN 64);
                   (Fprotocol, FvN 17); (Fchecksum, FvN 0); (Fsrc, FvN 16909060); (Fdst, FvN 84281096);
                   (Foptions, FvBytes [])]);
          (LUdp, [(Fsrc_port, FvN 1); (Fdst_port, FvN 2); (Flength, FvN 12); (Fchecksum, FvN 0)])] /\
    spec_fields ex_pkt (view p) =
      match fields_of_packet p with Ok l => l | _ => [] end.
Proof. eexists. split; [vm_compute; reflexivity|]. vm_compute. repeat split. Qed.

Definition ex6_pkt : bytes :=
  [106;188;222;241; 0;36; 0; 64] ++ repeat 17 16 ++ repeat 34 16 ++
  [44;0;1;2;3;4;5;6] ++ [6;0;0;0; 0;0;0;9] ++
  [0;80; 1;187; 0;0;0;1; 0;0;0;2; 81;18; 16;0; 171;205; 0;7].
Example C03_fields_ex6 :
  bytes_ok ex6_pkt /\
  exists p, SlicedPacket.from_ip ex6_pkt = Ok p /\
    fields_of_packet p =
      Ok [(LIpv6, [(Fversion, FvN 6); (Ftraffic_class, FvN 171); (Fflow_label, FvN 843505);
                   (Fpayload_len, FvN 36); (Fnext_header, FvN 0); (Fhop_limit, FvN 64);
                   (Fsrc, FvBytes (repeat 17 16)); (Fdst, FvBytes (repeat 34 16))]);
          (LHopByHop, [(Fnext_header, FvN 44); (Flen_byte, FvN 0); (Fpayload, FvBytes [1; 2; 3; 4; 5; 6])]);
          (LFragment, [(Fnext_header, FvN 6); (Ffrag_off, FvN 0); (Fmf, FvB false); (Fident, FvN 9)]);
          (LTcp, [(Fsrc_port, FvN 80); (Fdst_port, FvN 443); (Fseq, FvN 1); (Fack_nr, FvN 2);
                  (Fdata_offset, FvN 5); (Fns, FvB true); (Fcwr, FvB false); (Fece, FvB false);
                  (Furg, FvB false); (Fack, FvB true); (Fpsh, FvB false); (Frst, FvB false);
                  (Fsyn, FvB true); (Ffin, FvB false); (Fwindow, FvN 4096); (Fchecksum, FvN 43981);
                  (Furgent, FvN 7); (Foptions, FvBytes [])])].
Proof. split; [apply bytes_okb_spec; vm_compute; reflexivity|]. eexists. split; [vm_compute; reflexivity|]. vm_compute. reflexivity. Qed.

(* Linux SLL / IPv4 / UDP, and ether type 0x8100: VLAN / MACsec (SC, unmodified) / ARP *)
Definition ex_sll : bytes := [0;4; 0;1; 0;6; 1;2;3;4;5;6;0;0; 8;0] ++ skipn 18 ex_pkt.
Example C03_fields_ex_sll :
  exists p, SlicedPacket.from_linux_sll ex_sll = Ok p /\
    fields_of_packet p = Ok (spec_fields ex_sll (view p)) /\
    hd_error (spec_fields ex_sll (view p)) =
      Some (LSll, [(Fpacket_type, FvN 4); (Fhw_type, FvN 1); (Faddr_len, FvN 6);
                   (Faddr, FvBytes [1; 2; 3; 4; 5; 6; 0; 0]); (Fprotocol, FvN 2048)]) /\
    map fst (spec_fields ex_sll (view p)) = [LSll; LIpv4; LUdp].
Proof. eexists. split; [vm_compute; reflexivity|]. vm_compute. repeat split. Qed.

Definition ex_et : bytes :=
  [164;210; 136;229; 32;0; 0;0;0;9; 1;2;3;4;5;6;7;8; 8;6; 0;1; 8;0; 6;4; 0;2] ++
  [1;2;3;4;5;6; 10;0;0;1; 7;8;9;10;11;12; 10;0;0;2].
Example C03_fields_ex_et :
  exists p, SlicedPacket.from_ether_type 33024 ex_et = Ok p /\
    fields_of_packet p =
      Ok [(LVlan, [(Fpcp, FvN 5); (Fdei, FvB false); (Fvid, FvN 1234); (Fether_type, FvN 35045)]);
          (LMacsec, [(Fv, FvB false); (Fes, FvB false); (Fsc, FvB true); (Fscb, FvB false); (Fe, FvB false);
                     (Fc, FvB false); (Fan, FvN 0); (Fsl, FvN 0); (Fpn, FvN 9);
                     (Fsci, FvN 72623859790382856)]);
          (LArp, [(Fhw_type, FvN 1); (Fproto_type, FvN 2048); (Fhw_size, FvN 6); (Fproto_size, FvN 4);
                  (Foperation, FvN 2); (Fsender_hw, FvBytes [1; 2; 3; 4; 5; 6]);
                  (Fsender_proto, FvBytes [10; 0; 0; 1]); (Ftarget_hw, FvBytes [7; 8; 9; 10; 11; 12]);
                  (Ftarget_proto, FvBytes [10; 0; 0; 2])])] /\
    fields_of_packet p = Ok (spec_fields ex_et (view p)).
Proof. eexists. split; [vm_compute; reflexivity|]. vm_compute. repeat split. Qed.

(* ==== two clauses about the trusted reference decoder itself, as theorems ABOUT it (Parse/WireNested.v, Parse/WireSpecFacts.v)
   and, through the refinement above, about the model of SlicedPacket =====================

   (1) "Payloads are cut to the innermost applicable length field ... and never extend past
   it": `nested bs v` walks the view from the outside in; `cur` is the window of the data
   available to the next layer (already cut by every outer length field).  Each layer starts
   at the start of `cur`, ends inside it, and hands a payload window to the next layer that
   ends where its own length field says (MACsec short length, IPv4 total length, IPv6 payload
   length, UDP length; 0 = the end of `cur`).  The clauses per layer kind are pinned below
   (`C03_nested_pin_X`, by `eq_refl`).  `nested_inside`: every window of a nested view lies
   inside [0, len bs).

   (2) "Slicing fails exactly when a header is cut short, a length field claims more bytes
   than are present or fewer than its own header, or a documented content rule is violated":
   `classify bs err` decides, from the error and the bytes at the failing layer's offset, which
   of these causes the rejection has; it is total on the rejections of the reference decoder.
   Two causes of the reference decoder are NOT in the property's list and have their own
   classes: EcIcmpv4TimestampSize (an ICMPv4 timestamp / timestamp reply message that is not
   exactly 20 bytes long -- crate rule) and EcIcmpv6TooLong (ICMPv6 longer than 2^32-1). *)
From EP Require Import Parse.WireSpecFacts Parse.WireNested Parse.StrictFacts.

(* ---- (1) nesting ---- *)
Theorem C03_wire_nested : forall bs et v,
  (wire_ethernet bs = VOk v -> nested bs v) /\
  (wire_linux_sll bs = VOk v -> nested bs v) /\
  (wire_ether_type bs et = VOk v -> nested bs v) /\
  (wire_from_ip bs = VOk v -> nested bs v).
Proof. exact wire_nested. Qed.
Print Assumptions C03_wire_nested.

Theorem C03_nested_inside : forall bs v,
  nested bs v -> Forall (fun w => fst w + snd w <= len bs) (vwindows v).
Proof. exact nested_inside. Qed.
Print Assumptions C03_nested_inside.

Theorem C03_nested_from_ethernet : forall bs p, bytes_ok bs ->
  SlicedPacket.from_ethernet bs = Ok p ->
  wire_ethernet bs = VOk (view p) /\ nested bs (view p) /\ Forall (inside bs) (vwindows (view p)).
Proof. exact (fun bs p H => strict_nested_from_ethernet bs H p). Qed.
Print Assumptions C03_nested_from_ethernet.

Theorem C03_nested_from_linux_sll : forall bs p, bytes_ok bs ->
  SlicedPacket.from_linux_sll bs = Ok p ->
  wire_linux_sll bs = VOk (view p) /\ nested bs (view p) /\ Forall (inside bs) (vwindows (view p)).
Proof. exact (fun bs p H => strict_nested_from_linux_sll bs H p). Qed.
Print Assumptions C03_nested_from_linux_sll.

Theorem C03_nested_from_ether_type : forall bs et p, bytes_ok bs ->
  SlicedPacket.from_ether_type et bs = Ok p ->
  wire_ether_type bs et = VOk (view p) /\ nested bs (view p) /\ Forall (inside bs) (vwindows (view p)).
Proof. exact (fun bs et p H => strict_nested_from_ether_type bs et H p). Qed.
Print Assumptions C03_nested_from_ether_type.

Theorem C03_nested_from_ip : forall bs p, bytes_ok bs ->
  SlicedPacket.from_ip bs = Ok p ->
  wire_from_ip bs = VOk (view p) /\ nested bs (view p) /\ Forall (inside bs) (vwindows (view p)).
Proof. exact (fun bs p H => strict_nested_from_ip bs H p). Qed.
Print Assumptions C03_nested_from_ip.

(* what `nested` says, layer kind by layer kind (definitional unfoldings) *)
Example C03_nested_pin : forall bs v,
  nested bs v =
  (link_ok bs (v_link v) /\
   exts_nested bs (link_payload bs (v_link v)) (v_exts v) /\
   match v_net v with
   | None => True
   | Some nn => net_ok bs (exts_final (link_payload bs (v_link v)) (v_exts v)) nn
   end /\
   tr_nested bs (v_net v) (v_transport v)).
Proof. reflexivity. Qed.
Example C03_nested_pin_exts : forall bs cur x r,
  exts_nested bs cur (x :: r) = (ext_ok bs cur x /\ exts_nested bs (ext_payload x) r) /\
  exts_final cur (x :: r) = exts_final (ext_payload x) r /\ exts_final cur [] = cur.
Proof. repeat split. Qed.
Example C03_nested_pin_link : forall bs w h e,
  link_ok bs (Some (VEthernet2 w)) = (w = (0, len bs) /\ 14 <= len bs) /\
  link_payload bs (Some (VEthernet2 w)) = (fst w + 14, snd w - 14) /\
  link_ok bs (Some (VLinuxSll h w)) = (h = (0, 16) /\ w = (0, len bs) /\ 16 <= len bs) /\
  link_payload bs (Some (VLinuxSll h w)) = (fst w + snd h, snd w - snd h) /\
  link_ok bs (Some (VEtherPayload e)) = (vep_win e = (0, len bs) /\ vep_src e = LsSlice) /\
  link_payload bs (Some (VEtherPayload e)) = vep_win e /\
  link_payload bs None = (0, len bs).
Proof. repeat split. Qed.
Example C03_nested_pin_vlan : forall bs cur w,
  ext_ok bs cur (VVlan w) = (w = cur /\ 4 <= snd w) /\
  ext_payload (VVlan w) = (fst w + 4, snd w - 4).
Proof. repeat split. Qed.
Example C03_nested_pin_macsec : forall bs cur h p,
  ext_ok bs cur (VMacsec h p) =
  (let tci := B bs (fst h) in
   let sl := B bs (fst h + 1) mod 64 in
   let pw := match p with VMpUnmodified e => vep_win e | VMpModified w => w end in
   fst h = fst cur /\
   snd h = 6 + (if (tci / 4) mod 4 =? 0 then 2 else 0) + (if negb ((tci / 32) mod 2 =? 0) then 8 else 0) /\
   fst pw = fst h + snd h /\ fst pw + snd pw <= fst cur + snd cur /\
   (sl = 0 -> fst pw + snd pw = fst cur + snd cur) /\
   (0 < sl -> fst pw + snd pw = fst h + snd h + (if (tci / 4) mod 4 =? 0 then sl - 2 else sl)) /\
   match p with
   | VMpUnmodified e =>
       (tci / 4) mod 4 = 0 /\ vep_type e = W bs (fst h + snd h - 2) /\
       vep_src e = (if sl =? 0 then LsSlice else LsMacsecShortLength)
   | VMpModified _ => (tci / 4) mod 4 <> 0
   end) /\
  ext_payload (VMacsec h p) = match p with VMpUnmodified e => vep_win e | VMpModified w => w end.
Proof. repeat split. Qed.
Example C03_nested_pin_ipv4 : forall bs cur h auth p,
  net_ok bs cur (VIpv4 h auth p) =
  (let pos := fst h in
   let tl := W bs (pos + 2) in
   fst h = fst cur /\ snd h = (B bs pos mod 16) * 4 /\ 20 <= snd h /\
   pos + tl <= fst cur + snd cur /\
   match auth with
   | None => fst (vip_win p) = fst h + snd h
   | Some a => fst a = fst h + snd h /\ snd a = (B bs (fst a + 1) + 2) * 4 /\
               fst (vip_win p) = fst a + snd a
   end /\
   fst (vip_win p) + snd (vip_win p) = pos + tl /\ vip_src p = LsIpv4HeaderTotalLen).
Proof. reflexivity. Qed.
Example C03_nested_pin_ipv6 : forall bs cur h first frag x p,
  net_ok bs cur (VIpv6 h first frag x p) =
  (let pos := fst h in
   let pl := W bs (pos + 4) in
   fst h = fst cur /\ snd h = 40 /\ fst x = fst h + snd h /\ fst (vip_win p) = fst x + snd x /\
   fst (vip_win p) + snd (vip_win p) <= fst cur + snd cur /\
   (pl = 0 -> fst (vip_win p) + snd (vip_win p) = fst cur + snd cur) /\
   (0 < pl -> fst (vip_win p) + snd (vip_win p) = pos + 40 + pl /\
              vip_src p = LsIpv6HeaderPayloadLen)).
Proof. reflexivity. Qed.
Example C03_nested_pin_arp : forall bs cur w,
  net_ok bs cur (VArp w) =
  (fst w = fst cur /\ snd w = 8 + B bs (fst w + 4) * 2 + B bs (fst w + 5) * 2 /\
   fst w + snd w <= fst cur + snd cur).
Proof. reflexivity. Qed.
Example C03_nested_pin_transport : forall bs nn t ipw w hl,
  tr_nested bs nn (Some t) =
    match net_payload nn with
    | Some p => vip_frag p = false /\ tr_ok bs (vip_win p) t
    | None => False
    end /\
  tr_ok bs ipw (VUdp w) =
    (let l := W bs (fst w + 4) in
     fst w = fst ipw /\ 8 <= snd w /\ snd w <= snd ipw /\
     (l = 0 -> snd w = snd ipw) /\ (0 < l -> snd w = l)) /\
  tr_ok bs ipw (VTcp hl w) =
    (w = ipw /\ hl = (B bs (fst w + 12) / 16) * 4 /\ 20 <= hl /\ hl <= snd w) /\
  tr_ok bs ipw (VIcmpv4 w) = (w = ipw /\ 8 <= snd w) /\
  tr_ok bs ipw (VIcmpv6 w) = (w = ipw /\ 8 <= snd w /\ snd w <= 4294967295).
Proof. repeat split. Qed.

(* non-vacuity: the packet of C03_ex_ok followed by 3 bytes the IPv4 total length does not
   cover -- the VLAN window grows to the end of the input, the IP payload and UDP do not *)
Example C03_nested_ex :
  wire_ethernet (ex_pkt ++ [9; 9; 9]) =
    VOk (mkVPacket (Some (VEthernet2 (0, 53))) [VVlan (14, 39)]
           (Some (VIpv4 (18, 20) None (mkVIp 17 false LsIpv4HeaderTotalLen (38, 12))))
           (Some (VUdp (38, 12)))) /\
  vres_of (SlicedPacket.from_ethernet (ex_pkt ++ [9; 9; 9])) = wire_ethernet (ex_pkt ++ [9; 9; 9]).
Proof. vm_compute. repeat split. Qed.

(* ---- (2) classes of rejections ---- *)
Theorem C03_wire_err_classes : forall bs et err,
  (wire_ethernet bs = VErr err -> exists c, classify bs err = Some c) /\
  (wire_linux_sll bs = VErr err -> exists c, classify bs err = Some c) /\
  (wire_ether_type bs et = VErr err -> exists c, classify bs err = Some c) /\
  (wire_from_ip bs = VErr err -> exists c, classify bs err = Some c).
Proof. exact wire_err_classes. Qed.
Print Assumptions C03_wire_err_classes.

(* the classes of length errors have the inequality their name says *)
Theorem C03_class_len_direction : forall bs e c,
  classify bs (ELen e) = Some c ->
  len_direction e /\
  (c = EcHeaderCut \/ c = EcLenFieldBeyond \/ c = EcLenFieldBelowHeader -> le_len e < le_required e) /\
  (c = EcIcmpv4TimestampSize -> le_required e = 20 /\ le_len e <> 20) /\
  (c = EcIcmpv6TooLong -> le_required e = 4294967295 /\ 4294967295 < le_len e) /\
  c <> EcContentRule.
Proof. exact class_len_direction. Qed.
Print Assumptions C03_class_len_direction.

(* the model: its rejection has the cause (c03_rel: layer / required / available, or the same
   content error) of a rejection of the reference decoder, which is in one of the classes *)
Theorem C03_err_classes_from_ethernet : forall bs err, bytes_ok bs ->
  SlicedPacket.from_ethernet bs = Err err ->
  exists serr c, wire_ethernet bs = VErr serr /\ same_cause err serr /\ classify bs serr = Some c.
Proof. exact (fun bs err H => strict_err_classes_from_ethernet bs 0 H err). Qed.
Print Assumptions C03_err_classes_from_ethernet.

Theorem C03_err_classes_from_linux_sll : forall bs err, bytes_ok bs ->
  SlicedPacket.from_linux_sll bs = Err err ->
  exists serr c, wire_linux_sll bs = VErr serr /\ same_cause err serr /\ classify bs serr = Some c.
Proof. exact (fun bs err H => strict_err_classes_from_linux_sll bs 0 H err). Qed.
Print Assumptions C03_err_classes_from_linux_sll.

Theorem C03_err_classes_from_ether_type : forall bs et err, bytes_ok bs ->
  SlicedPacket.from_ether_type et bs = Err err ->
  exists serr c, wire_ether_type bs et = VErr serr /\ same_cause err serr /\ classify bs serr = Some c.
Proof. exact (fun bs et err H => strict_err_classes_from_ether_type bs et H err). Qed.
Print Assumptions C03_err_classes_from_ether_type.

Theorem C03_err_classes_from_ip : forall bs err, bytes_ok bs ->
  SlicedPacket.from_ip bs = Err err ->
  exists serr c, wire_from_ip bs = VErr serr /\ same_cause err serr /\ classify bs serr = Some c.
Proof. exact (fun bs err H => strict_err_classes_from_ip bs 0 H err). Qed.
Print Assumptions C03_err_classes_from_ip.

(* what `classify` and `same_cause` say for some representative layers (definitional) *)
Example C03_classify_pin : forall bs r l s o v,
  classify bs (ELen (mkLenError r l s LyIpv4Packet o)) =
    (if (r =? (B bs o mod 16) * 4) && (l =? W bs (o + 2)) && (l <? r) then Some EcLenFieldBelowHeader
     else if (r =? W bs (o + 2)) && (l <? r) then Some EcLenFieldBeyond else None) /\
  classify bs (ELen (mkLenError r l s LyIpv6Packet o)) =
    (if (r =? 40 + W bs (o + 4)) && (l <? r) then Some EcLenFieldBeyond else None) /\
  classify bs (ELen (mkLenError r l s LyIpv4Header o)) =
    (if ((r =? 20) || (r =? (B bs o mod 16) * 4)) && (l <? r) then Some EcHeaderCut else None) /\
  classify bs (ELen (mkLenError r l LsUdpHeaderLen LyUdpHeader o)) =
    (if (r =? 8) && (l =? W bs (o + 4)) && (0 <? l) && (l <? r) then Some EcLenFieldBelowHeader else None) /\
  classify bs (ELen (mkLenError r l LsIpv4HeaderTotalLen LyUdpHeader o)) =
    (if (r =? 8) && (l <? r) then Some EcHeaderCut else None) /\
  classify bs (ELen (mkLenError r l s LyUdpPayload o)) =
    (if (r =? W bs (o + 4)) && (l <? r) then Some EcLenFieldBeyond else None) /\
  classify bs (ELen (mkLenError r l s LyIcmpv4Timestamp o)) =
    (if (B bs o =? 13) && (B bs (o + 1) =? 0) && (r =? 20) && (8 <=? l) && negb (l =? 20)
     then Some EcIcmpv4TimestampSize else None) /\
  classify bs (ELen (mkLenError r l s LyIcmpv6 o)) =
    (if (r =? 8) && (l <? r) then Some EcHeaderCut
     else if (r =? 4294967295) && (r <? l) then Some EcIcmpv6TooLong else None) /\
  classify bs (EContent (CeIpv4Ihl v)) = (if v <? 5 then Some EcContentRule else None) /\
  classify bs (EContent CeHopByHopNotAtStart) = Some EcContentRule.
Proof. repeat split. Qed.
Example C03_same_cause_pin : forall a b c d,
  same_cause (ELen a) (ELen b) =
    (le_layer a = le_layer b /\ le_required a = le_required b /\ le_len a = le_len b) /\
  same_cause (EContent c) (EContent d) = (c = d) /\
  same_cause (ELen a) (EContent d) = False /\ same_cause (EContent c) (ELen b) = False.
Proof. repeat split. Qed.

(* non-vacuity: the rejection of C03_ex_cut (IPv4 total length 32, 23 bytes present) is
   "a length field claims more than is present"; a UDP length field of 5 is "smaller than
   its own header" *)
Example C03_classes_ex :
  classify (firstn 41 ex_pkt) (ELen (mkLenError 32 23 LsSlice LyIpv4Packet 18)) = Some EcLenFieldBeyond /\
  wire_ethernet (firstn 41 ex_pkt) = VErr (ELen (mkLenError 32 23 LsSlice LyIpv4Packet 18)) /\
  (let bs := firstn 42 ex_pkt ++ [0; 5] ++ skipn 44 ex_pkt in
   wire_ethernet bs = VErr (ELen (mkLenError 8 5 LsUdpHeaderLen LyUdpHeader 38)) /\
   vres_of (SlicedPacket.from_ethernet bs) = wire_ethernet bs /\
   classify bs (ELen (mkLenError 8 5 LsUdpHeaderLen LyUdpHeader 38)) = Some EcLenFieldBelowHeader).
Proof. vm_compute. repeat split. Qed.

(* ==== DERIVED and TYPED accessor values =====================
   Spec  : Parse/Fields2.v `spec_fields2 bs v` -- per layer of the view the values the formats
           prescribe for accessors that combine several raw fields or return a sub-window,
           defined from the RFC / IEEE fields at the layer's ABSOLUTE position (pinned below,
           `C03_fields2_pin_X`): MACsec payload type / next ether type / header length /
           expected payload length / unmodified flag from the E, C, SC bits and SL; IPv4 payload
           length = total length - IHL*4 and "fragmenting" = MF or offset <> 0; IPv6 DSCP / ECN
           = upper 6 / lower 2 bits of the traffic class; "fragmenting" of every fragment
           header the iterator yields; the SLL sender address window (min(length field, 8)
           octets); FCS absent, header and payload windows of Ethernet II / SLL / VLAN / UDP /
           TCP / ICMPv4 / ICMPv6 (the window behind the header, ending where `nested` says);
           the four ARP address windows; UDP length source; TCP header length = data offset * 4;
           ICMPv4 header length 20 for timestamp messages, else 8; the IP payload descriptor
           (protocol number, fragmentation flag, length source, window) of IPv4 (+AH) and IPv6
           (+extension chain).
   Model : Parse/Fields2.v `fields2_of_packet p` -- the accessor models of Parse/Access.v
           (is_unmodified, ptype, next_ether_type, header_len, expected_payload_len, payload_len,
           is_fragmenting_payload, dscp, ecn, sender_address, fcs, header_slice, payload_slice,
           payload, payload_len_source, the ARP address accessors) applied to the stored slices,
           a window = (pointer offset, length) of the returned sub-slice; the stored
           IpPayloadSlice fields; TcpSlice::header_len() / Icmpv6Slice::header_len() (stored
           field / constant, defined in Fields2.v).
   `C03_wire_desc` is a statement ABOUT the reference decoder (Parse/WireDesc.v): the payload
   descriptor of every accepted view is the one the octets prescribe (`net_desc`, pinned
   below); it is what ties the stored IP payload descriptor to the bytes. *)
From EP Require Import Parse.WireDesc Parse.Fields2 Parse.Fields2Proofs.

Theorem C03_wire_desc : forall bs et v,
  (wire_ethernet bs = VOk v -> desc bs v) /\
  (wire_linux_sll bs = VOk v -> desc bs v) /\
  (wire_ether_type bs et = VOk v -> desc bs v) /\
  (wire_from_ip bs = VOk v -> desc bs v).
Proof. exact wire_desc. Qed.
Print Assumptions C03_wire_desc.

Theorem C03_fields2_from_ethernet : forall bs p, bytes_ok bs ->
  SlicedPacket.from_ethernet bs = Ok p ->
  wire_ethernet bs = VOk (view p) /\ fields2_of_packet p = Ok (spec_fields2 bs (view p)).
Proof. exact fields2_wire_from_ethernet. Qed.
Print Assumptions C03_fields2_from_ethernet.

Theorem C03_fields2_from_linux_sll : forall bs p, bytes_ok bs ->
  SlicedPacket.from_linux_sll bs = Ok p ->
  wire_linux_sll bs = VOk (view p) /\ fields2_of_packet p = Ok (spec_fields2 bs (view p)).
Proof. exact fields2_wire_from_linux_sll. Qed.
Print Assumptions C03_fields2_from_linux_sll.

Theorem C03_fields2_from_ether_type : forall bs et p, bytes_ok bs ->
  SlicedPacket.from_ether_type et bs = Ok p ->
  wire_ether_type bs et = VOk (view p) /\ fields2_of_packet p = Ok (spec_fields2 bs (view p)).
Proof. exact fields2_wire_from_ether_type. Qed.
Print Assumptions C03_fields2_from_ether_type.

Theorem C03_fields2_from_ip : forall bs p, bytes_ok bs ->
  SlicedPacket.from_ip bs = Ok p ->
  wire_from_ip bs = VOk (view p) /\ fields2_of_packet p = Ok (spec_fields2 bs (view p)).
Proof. exact fields2_wire_from_ip. Qed.
Print Assumptions C03_fields2_from_ip.

(* what the specification says, layer kind by layer kind (definitional unfoldings) *)
Example C03_desc_pin : forall bs h auth p first frag x,
  desc bs = (fun v => match v_net v with None => True | Some nn => net_desc bs nn end) /\
  net_desc bs (VIpv4 h auth p) =
    (vip_number p = match auth with Some a => B bs (fst a) | None => B bs (fst h + 9) end /\
     vip_frag p = (negb ((B bs (fst h + 6) / 32) mod 2 =? 0) || negb (W bs (fst h + 6) mod 8192 =? 0))) /\
  net_desc bs (VIpv6 h first frag x p) =
    (chain_end bs (S (N.to_nat (snd x))) (B bs (fst h + 6)) (fst x) (fst x + snd x) false
       = (vip_number p, vip_frag p) /\
     frag = vip_frag p /\
     vip_src p = (if (W bs (fst h + 4) =? 0) && (0 <? snd x + snd (vip_win p))
                  then LsSlice else LsIpv6HeaderPayloadLen)).
Proof. repeat split. Qed.
Example C03_desc_pin_chain : forall bs f nh pos lim fr,
  chain_end bs (S f) nh pos lim fr =
    (if lim <=? pos then (nh, fr)
     else if (nh =? 0) || (nh =? 43) || (nh =? 60) then
       chain_end bs f (B bs pos) (pos + (B bs (pos + 1) + 1) * 8) lim fr
     else if nh =? 44 then
       chain_end bs f (B bs pos) (pos + 8) lim
         (fr || (negb (B bs (pos + 3) mod 2 =? 0) || negb (W bs (pos + 2) / 8 =? 0)))
     else if nh =? 51 then
       chain_end bs f (B bs pos) (pos + (B bs (pos + 1) + 2) * 4) lim fr
     else (nh, fr)) /\
  chain_end bs 0 nh pos lim fr = (nh, fr).
Proof. repeat split. Qed.
Example C03_fields2_pin_macsec : forall bs p,
  macsec_spec2 bs p =
  (let e := flag bs p 1 4 in
   let c := flag bs p 1 5 in
   let sc := flag bs p 1 2 in
   let sl := bits bs (p + 1) 1 2 6 in
   let unmod := negb e && negb c in
   let et := W bs (p + 6 + (if sc then 8 else 0)) in
   [(Dis_unmodified, DvB unmod);
    (Dptype, DvN (if e then (if c then 3 else 2) else if c then 1 else 0));
    (Dptype_ether_type, DvOptN (if unmod then Some et else None));
    (Dnext_ether_type, DvOptN (if unmod then Some et else None));
    (Dheader_len, DvN (6 + (if sc then 8 else 0) + (if unmod then 2 else 0)));
    (Dexpected_payload_len,
     DvOptN (if sl =? 0 then None
             else if unmod then (if sl <? 2 then None else Some (sl - 2))
             else Some sl))]).
Proof. reflexivity. Qed.
Example C03_fields2_pin_ip : forall bs h a x cend,
  ipv4_spec2 bs h a =
  (let p := fst h in
   let fr := flag bs (p + 6) 2 2 || negb (bits bs (p + 6) 2 3 13 =? 0) in
   let start := match a with Some w => fst w + snd w | None => fst h + snd h end in
   [(Dpayload_len, DvN (W bs (p + 2) - bits bs p 1 4 4 * 4));
    (Dis_fragmenting_payload, DvB fr);
    (Dpl_ip_number, DvN (match a with Some w => B bs (fst w) | None => B bs (p + 9) end));
    (Dpl_fragmented, DvB fr);
    (Dpl_len_source, DvSrc LsIpv4HeaderTotalLen);
    (Dpl_window, DvWin (start, p + W bs (p + 2) - start))]) /\
  ipv6_spec2 bs h x cend =
  (let p := fst h in
   let ne := chain_end_b bs (S (N.to_nat (snd x))) (B bs (p + 6)) (fst x) (fst x + snd x) false in
   let pend := if W bs (p + 4) =? 0 then cend else p + 40 + W bs (p + 4) in
   [(Ddscp, DvN (bits bs p 2 4 6)); (Decn, DvN (bits bs p 2 10 2));
    (Dpl_ip_number, DvN (fst ne)); (Dpl_fragmented, DvB (snd ne));
    (Dpl_len_source,
     DvSrc (if (W bs (p + 4) =? 0) && (p + 40 <? cend) then LsSlice else LsIpv6HeaderPayloadLen));
    (Dpl_window, DvWin (fst x + snd x, pend - (fst x + snd x)))]) /\
  frag_fragments_spec bs (fst h) =
    (flag bs (fst h + 2) 2 15 || negb (bits bs (fst h + 2) 2 0 13 =? 0)).
Proof. repeat split. Qed.
Example C03_fields2_pin_link_transport : forall bs w h,
  eth_spec2 w = [(Dfcs, DvOptBytes None); (Dheader, DvWin (fst w, 14));
                 (Dpayload, DvWin (fst w + 14, snd w - 14))] /\
  sll_spec2 bs h w = [(Dsender_address, DvWin (fst h + 6, N.min (W bs (fst h + 4)) 8));
                      (Dpayload, DvWin (fst w + 16, snd w - 16))] /\
  vlan_spec2 w = [(Dheader, DvWin (fst w, 4)); (Dpayload, DvWin (fst w + 4, snd w - 4))] /\
  arp_spec2 bs (fst w) =
    (let hln := B bs (fst w + 4) in let pln := B bs (fst w + 5) in
     [(Dsender_hw, DvWin (fst w + 8, hln)); (Dsender_proto, DvWin (fst w + 8 + hln, pln));
      (Dtarget_hw, DvWin (fst w + 8 + hln + pln, hln));
      (Dtarget_proto, DvWin (fst w + 8 + hln + pln + hln, pln))]) /\
  udp_spec2 bs w =
    [(Dheader, DvWin (fst w, 8)); (Dpayload, DvWin (fst w + 8, snd w - 8));
     (Dpayload_len_source, DvSrc (if W bs (fst w + 4) =? 0 then LsSlice else LsUdpHeaderLen))] /\
  tcp_spec2 bs w =
    (let hl := bits bs (fst w + 12) 1 0 4 * 4 in
     [(Dheader_len, DvN hl); (Dheader, DvWin (fst w, hl)); (Dpayload, DvWin (fst w + hl, snd w - hl))]) /\
  icmp4_spec2 bs w =
    (let hl := if ((B bs (fst w) =? 13) || (B bs (fst w) =? 14)) && (B bs (fst w + 1) =? 0) then 20 else 8 in
     [(Dheader_len, DvN hl); (Dpayload, DvWin (fst w + hl, snd w - hl))]) /\
  icmp6_spec2 w = [(Dheader_len, DvN 8); (Dpayload, DvWin (fst w + 8, snd w - 8))].
Proof. repeat split. Qed.
Example C03_fields2_pin_view : forall bs v,
  spec_fields2 bs v =
    dopt (spec_link2 bs) (v_link v) ++ map (spec_ext2 bs) (v_exts v) ++
    dopt (spec_net2 bs (wend (exts_final (link_payload bs (v_link v)) (v_exts v)))) (v_net v) ++
    dopt (spec_tr2 bs) (v_transport v).
Proof. reflexivity. Qed.

(* non-vacuity: the Ethernet / VLAN / IPv4 / UDP packet of C03_ex_ok; IPv6 (traffic class 0xab)
   / hop-by-hop / fragment (offset 0, M 1) / 20 payload octets; ether type 0x8100: VLAN /
   MACsec (SC, unmodified, SL 0) / ARP; MACsec with C set and SL 5; Linux SLL with a 6 octet
   address; an ICMPv4 timestamp message *)
Example C03_fields2_ex :
  exists p, SlicedPacket.from_ethernet ex_pkt = Ok p /\
    fields2_of_packet p =
      Ok [(LEth, [(Dfcs, DvOptBytes None); (Dheader, DvWin (0, 14)); (Dpayload, DvWin (14, 36))]);
          (LVlan, [(Dheader, DvWin (14, 4)); (Dpayload, DvWin (18, 32))]);
          (LIpv4, [(Dpayload_len, DvN 12); (Dis_fragmenting_payload, DvB false); (Dpl_ip_number, DvN 17);
                   (Dpl_fragmented, DvB false); (Dpl_len_source, DvSrc LsIpv4HeaderTotalLen);
                   (Dpl_window, DvWin (38, 12))]);
          (LUdp, [(Dheader, DvWin (38, 8)); (Dpayload, DvWin (46, 4));
                  (Dpayload_len_source, DvSrc LsUdpHeaderLen)])] /\
    fields2_of_packet p = Ok (spec_fields2 ex_pkt (view p)).
Proof. eexists. split; [vm_compute; reflexivity|]. vm_compute. repeat split. Qed.

Definition ex6f_pkt : bytes :=
  [106;188;222;241; 0;36; 0; 64] ++ repeat 17 16 ++ repeat 34 16 ++
  [44;0;1;2;3;4;5;6] ++ [6;0;0;1; 0;0;0;9] ++
  [0;80; 1;187; 0;0;0;1; 0;0;0;2; 81;18; 16;0; 171;205; 0;7].
Example C03_fields2_ex6 :
  bytes_ok ex6f_pkt /\
  exists p, SlicedPacket.from_ip ex6f_pkt = Ok p /\
    fields2_of_packet p =
      Ok [(LIpv6, [(Ddscp, DvN 42); (Decn, DvN 3); (Dpl_ip_number, DvN 6); (Dpl_fragmented, DvB true);
                   (Dpl_len_source, DvSrc LsIpv6HeaderPayloadLen); (Dpl_window, DvWin (56, 20))]);
          (LFragment, [(Dis_fragmenting_payload, DvB true)])] /\
    fields2_of_packet p = Ok (spec_fields2 ex6f_pkt (view p)).
Proof.
  split; [apply bytes_okb_spec; vm_compute; reflexivity|].
  eexists. split; [vm_compute; reflexivity|]. vm_compute. repeat split.
Qed.

Example C03_fields2_ex_et :
  exists p, SlicedPacket.from_ether_type 33024 ex_et = Ok p /\
    fields2_of_packet p =
      Ok [(LVlan, [(Dheader, DvWin (0, 4)); (Dpayload, DvWin (4, 44))]);
          (LMacsec, [(Dis_unmodified, DvB true); (Dptype, DvN 0); (Dptype_ether_type, DvOptN (Some 2054));
                     (Dnext_ether_type, DvOptN (Some 2054)); (Dheader_len, DvN 16);
                     (Dexpected_payload_len, DvOptN None)]);
          (LArp, [(Dsender_hw, DvWin (28, 6)); (Dsender_proto, DvWin (34, 4));
                  (Dtarget_hw, DvWin (38, 6)); (Dtarget_proto, DvWin (44, 4))])] /\
    fields2_of_packet p = Ok (spec_fields2 ex_et (view p)).
Proof. eexists. split; [vm_compute; reflexivity|]. vm_compute. repeat split. Qed.

Definition ex_msm : bytes := [4;5; 0;0;0;9; 1;2;3;4;5; 9;9].
Example C03_fields2_ex_macsec_modified :
  exists p, SlicedPacket.from_ether_type 35045 ex_msm = Ok p /\
    fields2_of_packet p =
      Ok [(LMacsec, [(Dis_unmodified, DvB false); (Dptype, DvN 1); (Dptype_ether_type, DvOptN None);
                     (Dnext_ether_type, DvOptN None); (Dheader_len, DvN 6);
                     (Dexpected_payload_len, DvOptN (Some 5))])] /\
    fields2_of_packet p = Ok (spec_fields2 ex_msm (view p)).
Proof. eexists. split; [vm_compute; reflexivity|]. vm_compute. repeat split. Qed.

Example C03_fields2_ex_sll :
  exists p, SlicedPacket.from_linux_sll ex_sll = Ok p /\
    fields2_of_packet p = Ok (spec_fields2 ex_sll (view p)) /\
    hd_error (spec_fields2 ex_sll (view p)) =
      Some (LSll, [(Dsender_address, DvWin (6, 6)); (Dpayload, DvWin (16, 32))]).
Proof. eexists. split; [vm_compute; reflexivity|]. vm_compute. repeat split. Qed.

Definition ex_ts : bytes :=
  [69;0;0;40; 0;0;0;0; 64;1;0;0; 1;2;3;4; 5;6;7;8] ++ [13;0;0;0; 0;1;0;2] ++ repeat 7 12.
Example C03_fields2_ex_icmp_ts :
  exists p, SlicedPacket.from_ip ex_ts = Ok p /\
    fields2_of_packet p = Ok (spec_fields2 ex_ts (view p)) /\
    last (spec_fields2 ex_ts (view p)) (LEth, []) =
      (LIcmp4, [(Dheader_len, DvN 20); (Dpayload, DvWin (40, 0))]).
Proof. eexists. split; [vm_compute; reflexivity|]. vm_compute. repeat split. Qed.

(* ==== layer DISPATCH and CONTENT RULES of accepted views =====
   `dispatch bs e v` (Parse/WireDispatch.v) is a DESCRIPTION of a view, not a decoder: it takes
   the view as given and says which layer kind may stand where, read off the octets the view
   points at -- which ether type is announced behind the link header (Ethernet II: octets
   12..13; Linux SLL: octets 14..15, only for ARP hardware type 1 and a protocol number that is
   not a Linux non-standard type; from_ether_type: the argument), that every link extension is
   of the kind the type announced in front of it names (0x8100 / 0x88A8 / 0x9100 -> 802.1Q,
   0x88E5 -> MACsec) and announces the next type itself (a MACsec payload that is encrypted or
   changed announces nothing), at most 3 extensions, ARP / IPv4 / IPv6 behind 0x0806 / 0x0800 /
   0x86DD (from_ip: by the version nibble), ICMPv4 / UDP / TCP / ICMPv6 behind IP number 1 / 17
   / 6 / 58 of an unfragmented payload, and the documented content rules on what was accepted:
   SLL packet type <= 7 and supported hardware type, MACsec version bit 0 and not (unmodified
   /\ short length 1), IP version 4 / 6, IHL >= 5, AH decoded exactly behind protocol 51 with
   length octet <> 0, the IPv6 extension window tiled exactly by extension headers with
   hop-by-hop (0) only directly behind the IPv6 header and ending at the first number that is
   none of 0 / 43 / 44 / 51 / 60, TCP data offset >= 5, ICMPv4 timestamp messages 20 octets.
   "NO next layer" holds exactly for the documented causes (C03_dispatch_no_net_iff,
   C03_dispatch_no_transport_iff, C03_dispatch_exts_stop).
   Proved of the reference decoder (C03_wire_dispatch) and transferred to the slicer model
   through the C03_from_X refinements (C03_dispatch_from_X), together with `nested` and `desc`. *)
From EP Require Import Parse.WireDispatch Parse.StrictDispatch.

Theorem C03_wire_dispatch : forall bs et v,
  (wire_ethernet bs = VOk v -> dispatch bs EnEthernet v) /\
  (wire_linux_sll bs = VOk v -> dispatch bs EnLinuxSll v) /\
  (wire_ether_type bs et = VOk v -> dispatch bs (EnEtherType et) v) /\
  (wire_from_ip bs = VOk v -> dispatch bs EnIp v).
Proof. exact wire_dispatch. Qed.
Print Assumptions C03_wire_dispatch.

Theorem C03_dispatch_from_ethernet : forall bs p, bytes_ok bs ->
  SlicedPacket.from_ethernet bs = Ok p ->
  wire_ethernet bs = VOk (view p) /\
  nested bs (view p) /\ desc bs (view p) /\ dispatch bs EnEthernet (view p).
Proof. exact (fun bs p H => strict_dispatch_from_ethernet bs H p). Qed.
Print Assumptions C03_dispatch_from_ethernet.

Theorem C03_dispatch_from_linux_sll : forall bs p, bytes_ok bs ->
  SlicedPacket.from_linux_sll bs = Ok p ->
  wire_linux_sll bs = VOk (view p) /\
  nested bs (view p) /\ desc bs (view p) /\ dispatch bs EnLinuxSll (view p).
Proof. exact (fun bs p H => strict_dispatch_from_linux_sll bs H p). Qed.
Print Assumptions C03_dispatch_from_linux_sll.

Theorem C03_dispatch_from_ether_type : forall bs et p, bytes_ok bs ->
  SlicedPacket.from_ether_type et bs = Ok p ->
  wire_ether_type bs et = VOk (view p) /\
  nested bs (view p) /\ desc bs (view p) /\ dispatch bs (EnEtherType et) (view p).
Proof. exact (fun bs et p H => strict_dispatch_from_ether_type bs et H p). Qed.
Print Assumptions C03_dispatch_from_ether_type.

Theorem C03_dispatch_from_ip : forall bs p, bytes_ok bs ->
  SlicedPacket.from_ip bs = Ok p ->
  wire_from_ip bs = VOk (view p) /\
  nested bs (view p) /\ desc bs (view p) /\ dispatch bs EnIp (view p).
Proof. exact (fun bs p H => strict_dispatch_from_ip bs H p). Qed.
Print Assumptions C03_dispatch_from_ip.

(* the "exactly when" readings of the description *)
Theorem C03_dispatch_no_net_iff : forall bs e v, dispatch bs e v -> e <> EnIp ->
  (v_net v = None <->
   match exts_announced bs (first_type bs e) (v_exts v) with
   | None => True                       (* SLL protocol that is no ether type / modified MACsec payload *)
   | Some et =>
       (link_ext_type et /\ length (v_exts v) = 3%nat)       (* cap reached *)
       \/ (~ link_ext_type et /\ ~ net_type et)              (* a type the crate does not decode *)
   end).
Proof. exact dispatch_no_net_iff. Qed.
Print Assumptions C03_dispatch_no_net_iff.

Theorem C03_dispatch_ip_has_net : forall bs v, dispatch bs EnIp v ->
  v_link v = None /\ v_exts v = [] /\ v_net v <> None.
Proof. exact dispatch_ip_has_net. Qed.
Print Assumptions C03_dispatch_ip_has_net.

Theorem C03_dispatch_no_transport_iff : forall bs e v, dispatch bs e v ->
  (v_transport v = None <->
   match net_payload (v_net v) with
   | None => True                                            (* no network layer / ARP *)
   | Some p => vip_frag p = true \/ ~ tr_number (vip_number p)
   end).
Proof. exact dispatch_no_transport_iff. Qed.
Print Assumptions C03_dispatch_no_transport_iff.

Theorem C03_dispatch_exts_stop : forall bs e v et, dispatch bs e v -> e <> EnIp ->
  exts_announced bs (first_type bs e) (v_exts v) = Some et -> link_ext_type et ->
  length (v_exts v) = 3%nat /\ v_net v = None.
Proof. exact dispatch_exts_stop. Qed.
Print Assumptions C03_dispatch_exts_stop.

(* what `dispatch` says (definitional unfoldings; the numbers are the crate's constants as
   regenerated from the source, Gen/ConstsAll.v) *)
Example C03_dispatch_pin : forall bs e v,
  dispatch bs e v =
  (link_dispatch bs e (v_link v) /\
   (length (v_exts v) <= 3)%nat /\
   exts_dispatch bs (first_type bs e) (v_exts v) /\
   match e with
   | EnIp => ip_dispatch bs (v_net v)
   | _ => net_dispatch bs (exts_announced bs (first_type bs e) (v_exts v)) (length (v_exts v)) (v_net v)
   end /\
   tr_dispatch bs (v_net v) (v_transport v)).
Proof. reflexivity. Qed.
Example C03_dispatch_pin_numbers : forall n,
  vlan_type n = (n = Gen.ConstsAll.link_ether_type_impl__VLAN_TAGGED_FRAME \/
                 n = Gen.ConstsAll.link_ether_type_impl__PROVIDER_BRIDGING \/
                 n = Gen.ConstsAll.link_ether_type_impl__VLAN_DOUBLE_TAGGED_FRAME) /\
  macsec_type n = (n = Gen.ConstsAll.link_ether_type_impl__MACSEC) /\
  link_ext_type n = (vlan_type n \/ macsec_type n) /\
  net_type n = (n = Gen.ConstsAll.link_ether_type_impl__ARP \/
                n = Gen.ConstsAll.link_ether_type_impl__IPV4 \/
                n = Gen.ConstsAll.link_ether_type_impl__IPV6) /\
  tr_number n = (n = Gen.ConstsAll.net_ip_number_impl__ICMP \/ n = Gen.ConstsAll.net_ip_number_impl__UDP \/
                 n = Gen.ConstsAll.net_ip_number_impl__TCP \/ n = Gen.ConstsAll.net_ip_number_impl__IPV6_ICMP) /\
  ext_number n = (n = Gen.ConstsAll.net_ip_number_impl__IPV6_HEADER_HOP_BY_HOP \/
                  n = Gen.ConstsAll.net_ip_number_impl__IPV6_ROUTE_HEADER \/
                  n = Gen.ConstsAll.net_ip_number_impl__IPV6_FRAGMENTATION_HEADER \/
                  n = Gen.ConstsAll.net_ip_number_impl__AUTHENTICATION_HEADER \/
                  n = Gen.ConstsAll.net_ip_number_impl__IPV6_DESTINATION_OPTIONS) /\
  N.to_nat Gen.ConstsAll.sliced_packet__LINK_EXTS_CAP = 3%nat.
Proof. repeat split. Qed.
Example C03_dispatch_pin_link : forall bs et w h ep l hw v,
  first_type bs EnEthernet = Some (W bs 12) /\
  first_type bs EnLinuxSll =
    (if (W bs 2 =? Gen.ConstsAll.net_arp_hardware_id__ETHERNET) && negb (sll_nonstandard (W bs 14))
     then Some (W bs 14) else None) /\
  first_type bs (EnEtherType et) = Some et /\ first_type bs EnIp = None /\
  link_dispatch bs EnEthernet (Some (VEthernet2 w)) = True /\
  link_dispatch bs EnLinuxSll (Some (VLinuxSll h w)) =
    (W bs 0 <= Gen.ConstsAll.link_linux_sll_packet_type__MAX_VAL /\ sll_hw_supported (W bs 2) = true) /\
  link_dispatch bs (EnEtherType et) (Some (VEtherPayload ep)) = (vep_type ep = et) /\
  link_dispatch bs EnIp None = True /\ link_dispatch bs EnIp (Some l) = False /\
  link_dispatch bs EnEthernet None = False /\
  sll_hw_supported hw =
    ((hw =? Gen.ConstsAll.net_arp_hardware_id__NETLINK) || (hw =? Gen.ConstsAll.net_arp_hardware_id__IPGRE) ||
     (hw =? Gen.ConstsAll.net_arp_hardware_id__IEEE80211_RADIOTAP) || (hw =? Gen.ConstsAll.net_arp_hardware_id__FRAD) ||
     (hw =? Gen.ConstsAll.net_arp_hardware_id__ETHERNET)) /\
  sll_nonstandard v =
    (((1 <=? v) && (v <=? 9)) || ((12 <=? v) && (v <=? 14)) || (v =? 16) || (v =? 17)
     || ((21 <=? v) && (v <=? 28)) || ((245 <=? v) && (v <=? 250))).
Proof. repeat split. Qed.
Example C03_dispatch_pin_exts : forall bs et x r w h e,
  exts_dispatch bs (Some et) (x :: r) =
    (ext_kind et x /\ ext_rules bs x /\ exts_dispatch bs (ext_announces bs x) r) /\
  exts_dispatch bs None (x :: r) = False /\
  exts_announced bs (Some et) (x :: r) = exts_announced bs (ext_announces bs x) r /\
  exts_announced bs (Some et) [] = Some et /\
  ext_kind et (VVlan w) = vlan_type et /\ ext_kind et (VMacsec h (VMpModified w)) = macsec_type et /\
  ext_announces bs (VVlan w) = Some (W bs (fst w + 2)) /\
  ext_announces bs (VMacsec h (VMpUnmodified e)) = Some (W bs (fst h + snd h - 2)) /\
  ext_announces bs (VMacsec h (VMpModified w)) = None /\
  ext_rules bs (VMacsec h (VMpModified w)) =
    (B bs (fst h) < 128 /\ ~ ((B bs (fst h) / 4) mod 4 = 0 /\ B bs (fst h + 1) mod 64 = 1)).
Proof. repeat split. Qed.
Example C03_dispatch_pin_net : forall bs ann k nn h a p first fr x w et,
  net_dispatch bs ann k (Some nn) = ((exists t, ann = Some t /\ net_kind t nn) /\ net_rules bs nn) /\
  net_dispatch bs (Some et) k None =
    ((link_ext_type et /\ k = 3%nat) \/ (~ link_ext_type et /\ ~ net_type et)) /\
  net_dispatch bs None k None = True /\
  net_kind et (VArp w) = (et = 2054) /\ net_kind et (VIpv4 h a p) = (et = 2048) /\
  net_kind et (VIpv6 h first fr x p) = (et = 34525) /\
  net_rules bs (VIpv4 h (Some w) p) =
    (B bs (fst h) / 16 = 4 /\ 5 <= B bs (fst h) mod 16 /\ B bs (fst h + 9) = 51 /\ B bs (fst w + 1) <> 0) /\
  net_rules bs (VIpv4 h None p) =
    (B bs (fst h) / 16 = 4 /\ 5 <= B bs (fst h) mod 16 /\ B bs (fst h + 9) <> 51) /\
  net_rules bs (VIpv6 h first fr x p) =
    (B bs (fst h) / 16 = 6 /\
     first = (if snd x =? 0 then None else Some (B bs (fst h + 6))) /\
     chain_rules bs (S (N.to_nat (snd x))) true (B bs (fst h + 6)) (fst x) (fst x + snd x) /\
     ~ ext_number (vip_number p)) /\
  ip_dispatch bs (Some (VIpv4 h a p)) = net_rules bs (VIpv4 h a p) /\
  ip_dispatch bs (Some (VIpv6 h first fr x p)) = net_rules bs (VIpv6 h first fr x p) /\
  ip_dispatch bs (Some (VArp w)) = False /\ ip_dispatch bs None = False.
Proof. repeat split. Qed.
Example C03_dispatch_pin_chain : forall bs f first nh pos lim,
  chain_rules bs (S f) first nh pos lim =
    (if lim <=? pos then pos = lim /\ ~ ext_number nh
     else ext_number nh /\ (nh = 0 -> first = true) /\ (nh = 51 -> B bs (pos + 1) <> 0) /\
          pos + ext_hdr_len bs nh pos <= lim /\
          chain_rules bs f false (B bs pos) (pos + ext_hdr_len bs nh pos) lim) /\
  chain_rules bs O first nh pos lim = False /\
  ext_hdr_len bs nh pos =
    (if nh =? 44 then 8 else if nh =? 51 then (B bs (pos + 1) + 2) * 4 else (B bs (pos + 1) + 1) * 8).
Proof. repeat split. Qed.
Example C03_dispatch_pin_transport : forall bs nn t n w hl,
  tr_dispatch bs nn (Some t) =
    match net_payload nn with
    | Some p => vip_frag p = false /\ tr_kind bs (vip_number p) t
    | None => False
    end /\
  tr_dispatch bs nn None =
    match net_payload nn with
    | None => True
    | Some p => vip_frag p = true \/ ~ tr_number (vip_number p)
    end /\
  tr_kind bs n (VIcmpv4 w) =
    (n = 1 /\ ((B bs (fst w) = 13 \/ B bs (fst w) = 14) -> B bs (fst w + 1) = 0 -> snd w = 20)) /\
  tr_kind bs n (VUdp w) = (n = 17) /\
  tr_kind bs n (VTcp hl w) = (n = 6 /\ 5 <= B bs (fst w + 12) / 16) /\
  tr_kind bs n (VIcmpv6 w) = (n = 58).
Proof. repeat split. Qed.

(* non-vacuity.  (1) the Ethernet / VLAN / IPv4 / UDP packet of C03_ex_ok is accepted by the
   model, so C03_dispatch_from_ethernet applies to it; its view without the UDP layer is NOT
   dispatched (number 17, unfragmented: UDP must follow), so `dispatch` is no tautology.
   (2) four stacked 802.1Q tags: three are decoded, the fourth announced type (0x8100) stays
   undecoded -- the cap -- and there is no network layer, in model and reference decoder.
   (3) a MACsec SecTAG with C set: nothing follows although IPv4 octets do. *)
Example C03_dispatch_ex :
  (exists p, SlicedPacket.from_ethernet ex_pkt = Ok p /\
     view p = mkVPacket (Some (VEthernet2 (0, 50))) [VVlan (14, 36)]
                (Some (VIpv4 (18, 20) None (mkVIp 17 false LsIpv4HeaderTotalLen (38, 12))))
                (Some (VUdp (38, 12)))) /\
  ~ dispatch ex_pkt EnEthernet
      (mkVPacket (Some (VEthernet2 (0, 50))) [VVlan (14, 36)]
         (Some (VIpv4 (18, 20) None (mkVIp 17 false LsIpv4HeaderTotalLen (38, 12)))) None).
Proof.
  split; [eexists; split; vm_compute; reflexivity|].
  intros (_ & _ & _ & _ & [H|H]); [discriminate H|]. apply H. right. left. reflexivity.
Qed.
Definition ex_cap : bytes :=
  [1;2;3;4;5;6; 7;8;9;10;11;12; 129;0] ++ [0;1; 136;168] ++ [0;2; 145;0] ++ [0;3; 129;0] ++
  [0;4; 8;0] ++ [69;0;0;20; 0;0;0;0; 64;17;0;0; 1;2;3;4; 5;6;7;8].
Example C03_dispatch_ex_cap :
  wire_ethernet ex_cap =
    VOk (mkVPacket (Some (VEthernet2 (0, 50))) [VVlan (14, 36); VVlan (18, 32); VVlan (22, 28)] None None) /\
  vres_of (SlicedPacket.from_ethernet ex_cap) = wire_ethernet ex_cap /\
  exts_announced ex_cap (first_type ex_cap EnEthernet) [VVlan (14, 36); VVlan (18, 32); VVlan (22, 28)]
    = Some 33024.
Proof. vm_compute. repeat split. Qed.
Definition ex_msm_ip : bytes :=
  [8;0; 0;0;0;9] ++ [69;0;0;20; 0;0;0;0; 64;17;0;0; 1;2;3;4; 5;6;7;8].
Example C03_dispatch_ex_macsec_modified :
  wire_ether_type ex_msm_ip 35045 =
    VOk (mkVPacket (Some (VEtherPayload (mkVEp 35045 LsSlice (0, 26))))
           [VMacsec (0, 6) (VMpModified (6, 20))] None None) /\
  vres_of (SlicedPacket.from_ether_type 35045 ex_msm_ip) = wire_ether_type ex_msm_ip 35045 /\
  exts_announced ex_msm_ip (first_type ex_msm_ip (EnEtherType 35045)) [VMacsec (0, 6) (VMpModified (6, 20))]
    = None.
Proof. vm_compute. repeat split. Qed.

(* ---- converse: a described view IS the answer ----------
   `nested` (windows), `desc` (IP payload descriptors) and `dispatch` (layer kinds, cap, content
   rules) together are a complete description: the reference decoder accepts bs with view v
   exactly when v is described for bs, so the described view is unique, and the slicer MODEL
   accepts with view v exactly when v is described and rejects exactly when no described view
   exists -- the clause "layer sequence" and both directions of "fails exactly when" against a
   description that is not a decoder. *)
From EP Require Import Parse.WireAccepts.

Theorem C03_wire_accepts_iff : forall bs e v,
  wire_of bs e = VOk v <-> nested bs v /\ desc bs v /\ dispatch bs e v.
Proof. exact wire_accepts_iff. Qed.
Print Assumptions C03_wire_accepts_iff.

Theorem C03_described_unique : forall bs e v v',
  nested bs v /\ desc bs v /\ dispatch bs e v ->
  nested bs v' /\ desc bs v' /\ dispatch bs e v' -> v = v'.
Proof. exact described_unique. Qed.
Print Assumptions C03_described_unique.

Theorem C03_strict_accepts_iff : forall bs e v, bytes_ok bs ->
  ((exists p, strict_of bs e = Ok p /\ view p = v) <->
   nested bs v /\ desc bs v /\ dispatch bs e v).
Proof. exact strict_accepts_iff. Qed.
Print Assumptions C03_strict_accepts_iff.

Theorem C03_strict_rejects_iff : forall bs e, bytes_ok bs ->
  ((exists err, strict_of bs e = Err err) <->
   forall v, ~ (nested bs v /\ desc bs v /\ dispatch bs e v)).
Proof. exact strict_rejects_iff. Qed.
Print Assumptions C03_strict_rejects_iff.

Example C03_accepts_pin : forall bs et,
  wire_of bs EnEthernet = wire_ethernet bs /\ wire_of bs EnLinuxSll = wire_linux_sll bs /\
  wire_of bs (EnEtherType et) = wire_ether_type bs et /\ wire_of bs EnIp = wire_from_ip bs /\
  strict_of bs EnEthernet = SlicedPacket.from_ethernet bs /\
  strict_of bs EnLinuxSll = SlicedPacket.from_linux_sll bs /\
  strict_of bs (EnEtherType et) = SlicedPacket.from_ether_type et bs /\
  strict_of bs EnIp = SlicedPacket.from_ip bs.
Proof. repeat split. Qed.
(* non-vacuity: both sides of the two model-level equivalences occur -- ex_pkt is accepted
   (so its view is described), ex_pkt cut inside the UDP header is rejected (so no view of
   those 41 bytes is described) *)
Example C03_accepts_ex :
  bytes_ok ex_pkt /\ (exists p, strict_of ex_pkt EnEthernet = Ok p /\
     view p = mkVPacket (Some (VEthernet2 (0, 50))) [VVlan (14, 36)]
                (Some (VIpv4 (18, 20) None (mkVIp 17 false LsIpv4HeaderTotalLen (38, 12))))
                (Some (VUdp (38, 12)))) /\
  bytes_ok (firstn 41 ex_pkt) /\ (exists err, strict_of (firstn 41 ex_pkt) EnEthernet = Err err).
Proof.
  split; [apply bytes_okb_spec; vm_compute; reflexivity|].
  split; [eexists; split; vm_compute; reflexivity|].
  split; [apply bytes_okb_spec; vm_compute; reflexivity|eexists; vm_compute; reflexivity].
Qed.
