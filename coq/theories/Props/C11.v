(* Props/C11.v -- property C11: fragments reassemble to the original payload in
   any arrival order.  Each theorem is the named lemma of Defrag/*.v; the
   Examples are concrete histories checked by evaluation.
   Spec = Defrag/Spec.v (reassembly as a partial map offset -> byte + optional
   end), Model = Defrag/Model.v (IpFragRange, IpDefragBuf, IpDefragPool). *)
From EP Require Import Base.Bytes Defrag.Spec Defrag.Model Defrag.Proofs.
Local Open Scope N_scope.

(* ---- the invariant of IpDefragBuf: sections well formed, pairwise neither
   overlapping nor touching; a byte of `data` is written (Some) exactly when a
   section covers it; every section ends within `data`, `data` is empty or ends
   where the last section ends, and has exactly the announced length once the
   final fragment was seen (with the repair of F8 no section can lie beyond the
   end any more); u16 bounds.  Established by new, kept by every successful add,
   and (model_step) an erroneous add leaves the buffer as it was: every history. ---- *)
Theorem C11_inv_new : forall ipn d s, Inv (buf_new ipn d s).
Proof. exact Inv_new. Qed.
Print Assumptions C11_inv_new.

Theorem C11_inv_add : forall b f b', Inv b -> add b f = AddOk b' -> Inv b'.
Proof. exact add_preserves_Inv. Qed.
Print Assumptions C11_inv_add.

Theorem C11_inv_reachable : forall h b, Inv b -> Inv (model_run b h).
Proof. exact model_run_Inv. Qed.
Print Assumptions C11_inv_reachable.

(* the slice `data[off..off+len]` and the unsafe `set_len(end)` are always in range *)
Theorem C11_no_panic : forall b f, add b f <> AddPanic.
Proof. exact add_never_panics. Qed.
Print Assumptions C11_no_panic.

(* ---- refinement: the buffer answers every delivery of EVERY history exactly
   like the Spec (verdict with all error fields, completeness, payload).  Before
   the repair of F8 this held only outside a known class. ---- *)
Theorem C11_refines : forall h ipn d s,
  model_trace (buf_new ipn d s) h = spec_trace spec_new h.
Proof. exact refines. Qed.
Print Assumptions C11_refines.

(* ---- any order: P any payload up to 65535 bytes, h any delivery list made of
   fragments of P (any cut at multiples of 8, any overlapping re-cut, any
   permutation, any duplicates); every prefix of such a list is such a list,
   so "complete exactly from the first delivery on that completes the cover,
   never before" is the first conjunct applied to the prefixes of h ---- *)
Theorem C11_any_order : forall P h ipn d0 s0, len P <= 65535 -> Forall (frag_of P) h ->
  let b := model_run (buf_new ipn d0 s0) h in
  (is_complete b = true <-> Covered P h) /\
  (is_complete b = true -> b_data b = map Some P) /\
  Forall (fun o : obs => fst (fst o) = VOk) (model_trace (buf_new ipn d0 s0) h).
Proof. exact any_order. Qed.
Print Assumptions C11_any_order.

Theorem C11_any_order_prefix : forall P h k ipn d0 s0, len P <= 65535 -> Forall (frag_of P) h ->
  let b := model_run (buf_new ipn d0 s0) (firstn k h) in
  (is_complete b = true <-> Covered P (firstn k h)) /\
  (is_complete b = true -> b_data b = map Some P).
Proof. exact any_order_prefix. Qed.
Print Assumptions C11_any_order_prefix.

(* the same for an explicit cut: sizes = lengths of the non-final fragments in
   units of 8 bytes; delivering any list over the fragments of the cut *)
Theorem C11_cut_any_order : forall P sizes h ipn d0 s0, len P <= 65535 -> sumN sizes * 8 <= len P ->
  (forall f, In f h -> In f (cut_at P 0 sizes)) ->
  let b := model_run (buf_new ipn d0 s0) h in
  (is_complete b = true <-> Covered P h) /\
  (is_complete b = true -> b_data b = map Some P) /\
  ((forall f, In f (cut_at P 0 sizes) -> In f h) -> is_complete b = true).
Proof. exact cut_any_order. Qed.
Print Assumptions C11_cut_any_order.

(* ---- no leak: a completed buffer holds no byte that this datagram did not
   write -- every history ---- *)
Theorem C11_no_leak : forall h ipn d s,
  let b := model_run (buf_new ipn d s) h in
  is_complete b = true -> no_None (b_data b).
Proof. exact no_leak. Qed.
Print Assumptions C11_no_leak.

(* ---- rejects: the documented error, buffer unchanged ---- *)
Theorem C11_reject_toobig : forall b f, 65535 < f_endp f ->
  model_step b f = (VTooBig (f_fo f) (len (f_data f)), b).
Proof. exact reject_toobig. Qed.
Print Assumptions C11_reject_toobig.

Theorem C11_reject_unaligned : forall b f,
  f_endp f <= 65535 -> f_mf f = true -> len (f_data f) mod 8 <> 0 ->
  model_step b f = (VUnaligned (f_fo f) (len (f_data f)), b).
Proof. exact reject_unaligned. Qed.
Print Assumptions C11_reject_unaligned.

Theorem C11_reject_conflict : forall b f prev,
  f_endp f <= 65535 -> (f_mf f = true -> len (f_data f) mod 8 = 0) ->
  b_end b = Some prev -> (prev < f_endp f \/ (f_mf f = false /\ f_endp f <> prev)) ->
  model_step b f = (VConflict prev (f_endp f), b).
Proof. exact reject_conflict. Qed.
Print Assumptions C11_reject_conflict.

(* the reject added by the repair of F8: the total length is not known yet and a
   final fragment ends below the largest section end r (= the largest offset
   received): ConflictingEnd{previous_end: r.end, conflicting_end}, buffer unchanged *)
Theorem C11_reject_late_end : forall b f r,
  f_endp f <= 65535 -> b_end b = None -> f_mf f = false ->
  In r (b_sections b) -> (forall r', In r' (b_sections b) -> r_end r' <= r_end r) ->
  f_endp f < r_end r ->
  model_step b f = (VConflict (r_end r) (f_endp f), b).
Proof. exact reject_late_end. Qed.
Print Assumptions C11_reject_late_end.

(* nothing else is rejected *)
Theorem C11_accept : forall b f, accepts b f -> exists b', model_step b f = (VOk, b').
Proof. exact accept_ok. Qed.
Print Assumptions C11_accept.

(* two consequences of the invariant for the repaired add: while the total length
   is unknown the largest section end is the data length (the new check could
   equally compare with data.len()), and an accepted final fragment never
   shortens the data (the closing set_len(end) is a no-op) *)
Theorem C11_section_max_is_data_len : forall b, Inv b -> b_end b = None ->
  match sec_max (b_sections b) with
  | Some m => m = len (b_data b)
  | None => len (b_data b) = 0
  end.
Proof. exact sec_max_is_len. Qed.
Print Assumptions C11_section_max_is_data_len.

Theorem C11_final_set_len_noop : forall b f, Inv b -> accepts b f -> f_mf f = false ->
  len (written b f) = f_endp f /\ take (f_endp f) (written b f) = written b f.
Proof. exact final_set_len_noop. Qed.
Print Assumptions C11_final_set_len_noop.

(* ---- order independence of the verdict (what F8 violated) ----
   Every delivery of h is answered Ok exactly when h is a consistent set of
   fragments (each acceptable on its own; every final fragment ends at or beyond
   the end of every fragment) -- a condition on the SET of fragments.  Hence for
   any two orders of the same deliveries: both are accepted completely or both
   contain a reject; and when accepted, the buffer is complete in both or in
   neither (exactly when the set covers [0, end)).  Which delivery of an
   inconsistent set is the rejected one necessarily depends on the order
   (whatever arrives first is kept). *)
Theorem C11_all_ok_iff_consistent : forall h ipn d s,
  Forall okobs (model_trace (buf_new ipn d s) h) <-> consistent h.
Proof. exact all_ok_iff. Qed.
Print Assumptions C11_all_ok_iff_consistent.

Theorem C11_order_independent : forall h1 h2 ipn d s, Permutation.Permutation h1 h2 ->
  (Forall okobs (model_trace (buf_new ipn d s) h1) <-> Forall okobs (model_trace (buf_new ipn d s) h2)) /\
  (Forall okobs (model_trace (buf_new ipn d s) h1) ->
     is_complete (model_run (buf_new ipn d s) h1) = is_complete (model_run (buf_new ipn d s) h2)).
Proof. exact order_independent. Qed.
Print Assumptions C11_order_independent.

Theorem C11_consistent_complete : forall h ipn d s, consistent h ->
  (is_complete (model_run (buf_new ipn d s) h) = true <-> GCovered h).
Proof. exact consistent_complete. Qed.
Print Assumptions C11_consistent_complete.

(* ---- regression for the former finding F8 (IpDefragBuf::add accepted a final
   fragment that ends below data stored earlier; the reverse order was rejected).
   With the repaired add both orders reject the second delivery, with exactly
   these error values, and leave the buffer as it was; Model and Spec agree. *)
Definition f8_first : frag := mkFrag 0 true [0;1;2;3;4;5;6;7;8;9;10;11;12;13;14;15].
Definition f8_second : frag := mkFrag 1 false [170;187;204;221].

Example C11_f8_regression :
  let ba := model_run (buf_new 17 [] []) [f8_first] in
  let bz := model_run (buf_new 17 [] []) [f8_second] in
  LateEndClass [f8_first; f8_second] /\
  model_step ba f8_second = (VConflict 16 12, ba) /\
  model_step bz f8_first = (VConflict 12 16, bz) /\
  model_trace (buf_new 17 [] []) [f8_first; f8_second] = [(VOk, false, None); (VConflict 16 12, false, None)] /\
  spec_trace spec_new [f8_first; f8_second] = [(VOk, false, None); (VConflict 16 12, false, None)] /\
  model_trace (buf_new 17 [] []) [f8_second; f8_first] = [(VOk, false, None); (VConflict 12 16, false, None)] /\
  spec_trace spec_new [f8_second; f8_first] = [(VOk, false, None); (VConflict 12 16, false, None)].
Proof. exact f8_regression. Qed.

(* several stored sections [0,8) [32,40) [16,24) (Vec order): the maximum 40 is
   reported; a final fragment overlapping the top section but ending at 39 is
   rejected; ending exactly at the maximum (40), or beyond, is accepted; the F8
   pair with the final fragment reaching 16 completes *)
Example C11_f8_variants :
  let s0 := mkFrag 0 true [1;2;3;4;5;6;7;8] in
  let s4 := mkFrag 4 true [41;42;43;44;45;46;47;48] in
  let s2 := mkFrag 2 true [21;22;23;24;25;26;27;28] in
  let b := model_run (buf_new 6 [] []) [s0; s4; s2] in
  b_sections b = [mkRange 0 8; mkRange 32 40; mkRange 16 24] /\
  model_step b (mkFrag 3 false [9;9;9]) = (VConflict 40 27, b) /\
  model_step b (mkFrag 4 false [9;9;9;9;9;9;9]) = (VConflict 40 39, b) /\
  fst (model_step b (mkFrag 4 false [9;9;9;9;9;9;9;9])) = VOk /\
  fst (model_step b (mkFrag 5 false [])) = VOk /\
  fst (model_step b (mkFrag 5 false [7])) = VOk /\
  map (fun o : obs => fst o)
      (model_trace (buf_new 6 [] []) [mkFrag 0 true [0;1;2;3;4;5;6;7;8;9;10;11;12;13;14;15];
                                      mkFrag 1 false [170;187;204;221;1;2;3;4]])
    = [(VOk, false); (VOk, true)].
Proof. exact f8_variants. Qed.

(* hypotheses of C11_reject_late_end, C11_order_independent (a consistent and an
   inconsistent set) and C11_consistent_complete are satisfiable *)
Example C11_ex_late_end :
  let b := model_run (buf_new 17 [] []) [f8_first] in
  f_endp f8_second <= 65535 /\ b_end b = None /\ f_mf f8_second = false /\
  In (mkRange 0 16) (b_sections b) /\
  (forall r', In r' (b_sections b) -> r_end r' <= r_end (mkRange 0 16)) /\
  f_endp f8_second < r_end (mkRange 0 16).
Proof.
  cbv zeta. split; [vm_compute; discriminate|]. split; [vm_compute; reflexivity|]. split; [reflexivity|].
  split; [vm_compute; left; reflexivity|]. split; [|vm_compute; reflexivity].
  intros r' Hr'. vm_compute in Hr'. destruct Hr' as [Hr'|[]]. subst r'. vm_compute. discriminate.
Qed.

Example C11_ex_final_noop :
  let b := model_run (buf_new 17 [] []) [f8_first] in
  b_end b = None /\ sec_max (b_sections b) = Some 16 /\ len (b_data b) = 16 /\
  accepts b (mkFrag 1 false [1;2;3;4;5;6;7;8]) /\ Inv b.
Proof.
  cbv zeta. split; [vm_compute; reflexivity|]. split; [vm_compute; reflexivity|]. split; [vm_compute; reflexivity|].
  split; [|apply model_run_Inv, Inv_new].
  split; [vm_compute; discriminate|]. split; [discriminate|]. split.
  - intros p Hp. vm_compute in Hp. discriminate.
  - intros _ _ r Hr. vm_compute in Hr. destruct Hr as [Hr|[]]. subst r. vm_compute. discriminate.
Qed.

Example C11_ex_order :
  Permutation.Permutation [f8_first; f8_second] [f8_second; f8_first] /\
  ~ consistent [f8_first; f8_second] /\
  consistent [mkFrag 1 false [170;187;204;221]; mkFrag 0 true [0;1;2;3;4;5;6;7]] /\
  GCovered [mkFrag 1 false [170;187;204;221]; mkFrag 0 true [0;1;2;3;4;5;6;7]].
Proof.
  split; [apply Permutation.perm_swap|]. split; [|split].
  - intros [_ H]. specialize (H f8_second f8_first (or_intror (or_introl eq_refl)) (or_introl eq_refl) eq_refl).
    vm_compute in H. apply H. reflexivity.
  - rewrite <- (all_ok_iff _ 17 [] []). vm_compute. repeat constructor.
  - rewrite <- (consistent_complete _ 17 [] []).
    + vm_compute. reflexivity.
    + rewrite <- (all_ok_iff _ 17 [] []). vm_compute. repeat constructor.
Qed.

(* ---- the pool ---- *)
(* isolation: the answers to the deliveries of one stream id inside any
   interleaving with deliveries for other ids and buffer returns are the answers
   that id gets alone *)
Theorem C11_isolation : forall ops p id,
  results_for id (pool_trace p ops) = stream_trace (view id p) (for_id id ops).
Proof. exact isolation. Qed.
Print Assumptions C11_isolation.

(* one stream, fragments of P (every one with the more-fragments flag or a
   non-zero offset, otherwise the pool passes it through): nothing is returned
   while the delivered fragments do not cover P ... *)
Theorem C11_pool_never_early : forall P, len P <= 65535 -> forall ks,
  (forall kt, In kt ks -> pkt_ok P kt) ->
  (forall j, (j <= length ks)%nat -> ~ Covered P (firstn j (frags_of ks))) ->
  stream_trace None ks = map (fun _ => PNone) ks.
Proof. exact pool_never_early. Qed.
Print Assumptions C11_pool_never_early.

(* ... the delivery that completes the cover returns P with the packet's ip
   number, and the stream is released (the next packet of the id starts afresh) *)
Theorem C11_pool_completes : forall P, len P <= 65535 -> forall ks k ts,
  (forall kt, In kt ks -> pkt_ok P kt) -> pkt_ok P (k, ts) ->
  (forall j, (j <= length ks)%nat -> ~ Covered P (firstn j (frags_of ks))) ->
  Covered P (frags_of ks ++ [k_frag k]) ->
  stream_trace None (ks ++ [(k, ts)]) =
    map (fun _ => PNone) ks ++ [PDone (k_ipn k) (k_v4 k) (map Some P)] /\
  stream_run None (ks ++ [(k, ts)]) = None.
Proof. exact pool_completes. Qed.
Print Assumptions C11_pool_completes.

(* unfragmented packets pass through: no answer, no state *)
Theorem C11_passthrough : forall p k ts, is_fragmenting (k_frag k) = false ->
  process p k ts = (PNone, p).
Proof. exact passthrough. Qed.
Print Assumptions C11_passthrough.

(* whatever the history (reused buffers, conflicting fragments):
   a payload handed out by the pool contains no unwritten / stale byte and the
   pool never reaches the out-of-range slice *)
Theorem C11_pool_no_leak : forall ops id,
  Forall res_ok (results_for id (pool_trace pool_new ops)).
Proof. exact pool_no_leak. Qed.
Print Assumptions C11_pool_no_leak.

(* ---- non-vacuity ---- *)
Definition exP : bytes := [1;2;3;4;5;6;7;8;9;10;11;12;13;14;15;16;17;18;19].
Definition exCut : list frag := cut_at exP 0 [1; 1].

Example C11_ex_cut : exCut = [mkFrag 0 true [1;2;3;4;5;6;7;8]; mkFrag 1 true [9;10;11;12;13;14;15;16];
                              mkFrag 2 false [17;18;19]].
Proof. vm_compute. reflexivity. Qed.

(* hypotheses of C11_any_order hold for a reversed delivery with a duplicate *)
Example C11_ex_hyp : len exP <= 65535 /\ Forall (frag_of exP) (nth 2 exCut f8_first :: nth 1 exCut f8_first :: nth 1 exCut f8_first :: nth 0 exCut f8_first :: nil).
Proof.
  split; [vm_compute; discriminate|].
  pose proof (cut_frag_of exP [1; 1] 0) as H. rewrite Forall_forall in H.
  assert (Hb : (0 + sumN [1; 1]) * 8 <= len exP) by (vm_compute; discriminate).
  repeat constructor; apply H; try exact Hb; vm_compute; tauto.
Qed.

Example C11_ex_trace :
  model_trace (buf_new 17 [Some 255] [mkRange 0 1])
    [nth 2 exCut f8_first; nth 1 exCut f8_first; nth 1 exCut f8_first; nth 0 exCut f8_first]
  = [(VOk, false, None); (VOk, false, None); (VOk, false, None); (VOk, true, Some (map Some exP))].
Proof. vm_compute. reflexivity. Qed.

(* hypotheses of the three reject theorems *)
Example C11_ex_rejects :
  let b := model_run (buf_new 17 [] []) [mkFrag 2 false [17;18;19]] in
  model_step b (mkFrag 8191 false [1;2;3;4;5;6;7;8]) = (VTooBig 8191 8, b) /\
  model_step b (mkFrag 0 true [1;2;3]) = (VUnaligned 0 3, b) /\
  model_step b (mkFrag 2 true [1;2;3;4;5;6;7;8]) = (VConflict 19 24, b) /\
  model_step b (mkFrag 2 false [1;2]) = (VConflict 19 18, b).
Proof. vm_compute. repeat split; reflexivity. Qed.

(* two interleaved streams through the pool model *)
Example C11_ex_pool :
  let k id f := mkPkt [id] true 17 f in
  map snd (pool_trace pool_new
    [ODeliver (k 1 (mkFrag 1 false [9])) 1; ODeliver (k 2 (mkFrag 0 true [1;2;3;4;5;6;7;8])) 1;
     ODeliver (k 2 (mkFrag 1 false [7])) 2; ODeliver (k 1 (mkFrag 0 true [8;7;6;5;4;3;2;1])) 2])
  = [PNone; PNone; PDone 17 true (map Some [1;2;3;4;5;6;7;8;7]); PDone 17 true (map Some [8;7;6;5;4;3;2;1;9])].
Proof. vm_compute. reflexivity. Qed.

(* ======================================================================
   Release, recycling and retain (second part; model: Defrag/PoolModel.v,
   lemmas: Defrag/PoolProofs.v).  Histories `list rop` are made of the three
   public operations process_sliced_packet / return_buf / retain and have any
   length; `retain` takes any predicate on (stream id, timestamp) -- the code's
   `Fn(&Timestamp) -> bool` is the case of a predicate that ignores the id.
   `stats p` is what the hook `verif_stats` returns; `pool_wf p` says that the
   HashMap has one entry per key (holds for pool_new, kept by every operation).
   ====================================================================== *)
From EP Require Import Defrag.PoolModel Defrag.PoolProofs.

(* Model.v's retain (cutoff on the timestamp) is an instance of retain_f *)
Theorem C11_retain_instance : forall p c, retain p c = retain_f p (fun _ t => c <=? t).
Proof. exact retain_is_retain_f. Qed.
Print Assumptions C11_retain_instance.

(* one entry per key: every reachable pool *)
Theorem C11_wf_reachable : forall ops p, pool_wf p -> pool_wf (rrun p ops).
Proof. exact rrun_wf. Qed.
Print Assumptions C11_wf_reachable.

(* ---- C11_release: a delivery that returns a payload found an entry, its add succeeded and
   completed the buffer; exactly that entry leaves `active` (every other stream keeps its
   entry, the number of entries drops by one), its section vector is pushed to
   finished_section_bufs, its data vector IS the payload handed to the caller, and
   finished_data_bufs is untouched (the caller may give the vector back with return_buf) ---- *)
Theorem C11_release : forall p k ts ipn v4 pl p', pool_wf p -> process p k ts = (PDone ipn v4 pl, p') ->
  exists b t b',
    view (k_id k) p = Some (b, t) /\ add b (k_frag k) = AddOk b' /\ is_complete b' = true /\
    ipn = k_ipn k /\ v4 = k_v4 k /\ pl = b_data b' /\
    p_active p' = aremove (k_id k) (p_active p) /\
    view (k_id k) p' = None /\
    (forall id', id' <> k_id k -> view id' p' = view id' p) /\
    len (p_active p') + 1 = len (p_active p) /\
    p_fdata p' = p_fdata p /\
    p_fsec p' = b_sections b' :: p_fsec p.
Proof. exact release_complete. Qed.
Print Assumptions C11_release.

(* a failing FIRST add creates no entry and pushes both vectors taken for it (popped from the
   free lists or freshly allocated), cleared, to the free lists: nothing is lost *)
Theorem C11_release_first_err : forall p k ts v p', view (k_id k) p = None -> process p k ts = (PErr v, p') ->
  p_active p' = p_active p /\
  p_fdata p' = [] :: tl (p_fdata p) /\
  p_fsec p' = [] :: tl (p_fsec p) /\
  len (p_fdata p') = N.max 1 (len (p_fdata p)) /\
  len (p_fsec p') = N.max 1 (len (p_fsec p)).
Proof. exact release_first_err. Qed.
Print Assumptions C11_release_first_err.

(* an error on an existing entry changes nothing at all *)
Theorem C11_release_err_occupied : forall p k ts v p' b t, view (k_id k) p = Some (b, t) ->
  process p k ts = (PErr v, p') -> p' = p.
Proof. exact release_err_occupied. Qed.
Print Assumptions C11_release_err_occupied.

(* the three numbers of verif_stats after ANY delivery, by answer (delivery_stats in PoolModel.v):
   payload: (a-1, d, s+1), never on the Vacant path; nothing: Vacant (a+1, d-1, s-1) with 0-1 = 0
   (fresh allocation), Occupied unchanged; error: Vacant (a, max 1 d, max 1 s), Occupied unchanged *)
Theorem C11_delivery_stats : forall p k ts, pool_wf p ->
  delivery_stats p k (fst (process p k ts)) (snd (process p k ts)).
Proof. exact process_stats. Qed.
Print Assumptions C11_delivery_stats.

(* retain(f) removes exactly the streams for which f is false -- every stream's entry afterwards
   is `retain_view` of its entry before -- and recycles both vectors of each evicted stream *)
Theorem C11_retain_release : forall p f, pool_wf p ->
  let p' := retain_f p f in
  pool_wf p' /\
  (forall id, view id p' = retain_view id f (view id p)) /\
  p_active p' = filter (kept f) (p_active p) /\
  p_fdata p' = map (fun e => b_data (fst (snd e))) (filter (fun e => negb (kept f e)) (p_active p)) ++ p_fdata p /\
  p_fsec p' = map (fun e => b_sections (fst (snd e))) (filter (fun e => negb (kept f e)) (p_active p)) ++ p_fsec p /\
  len (p_active p') + evicted p f = len (p_active p) /\
  len (p_fdata p') = len (p_fdata p) + evicted p f /\
  len (p_fsec p') = len (p_fsec p) + evicted p f.
Proof. exact retain_release. Qed.
Print Assumptions C11_retain_release.

(* ---- conservation, every history from the empty pool: each data vector the pool allocated
   (or the caller donated) is in an entry, in the free list or in the caller's hands; each section
   vector is in an entry or in the free list.  `lrun` keeps the caller's ledger next to the pool. ---- *)
Theorem C11_conservation : forall ops,
  pool_wf (rrun pool_new ops) /\ balanced (rrun pool_new ops) (snd (lrun pool_new ledger0 ops)).
Proof. exact conservation. Qed.
Print Assumptions C11_conservation.

(* the same from any balanced state *)
Theorem C11_conservation_from : forall ops p l, pool_wf p -> balanced p l ->
  pool_wf (fst (lrun p l ops)) /\ balanced (fst (lrun p l ops)) (snd (lrun p l ops)).
Proof. exact lrun_balanced. Qed.
Print Assumptions C11_conservation_from.

(* the pool allocates a vector only on a Vacant entry whose free list is empty (one per list);
   the only other source of vectors is a return_buf while the caller holds none of the pool's *)
Theorem C11_alloc_only_when_empty : forall p l o,
  (l_new_data (lstep p l o) <> l_new_data l ->
     exists k ts, o = RDeliver k ts /\ vacant p k = true /\ p_fdata p = [] /\
                  l_new_data (lstep p l o) = l_new_data l + 1) /\
  (l_new_sec (lstep p l o) <> l_new_sec l ->
     exists k ts, o = RDeliver k ts /\ vacant p k = true /\ p_fsec p = [] /\
                  l_new_sec (lstep p l o) = l_new_sec l + 1) /\
  (l_foreign (lstep p l o) <> l_foreign l ->
     exists pl, o = RReturn pl /\ l_held l = 0 /\ l_foreign (lstep p l o) = l_foreign l + 1).
Proof. exact alloc_only_when_empty. Qed.
Print Assumptions C11_alloc_only_when_empty.

(* active*2 + pooled + handed out changes, in every step, exactly by those allocations *)
Theorem C11_total_step : forall p l o, pool_wf p ->
  total (snd (rstep p o)) (lstep p l o) + l_new_data l + l_new_sec l + l_foreign l =
  total p l + l_new_data (lstep p l o) + l_new_sec (lstep p l o) + l_foreign (lstep p l o).
Proof. exact total_step. Qed.
Print Assumptions C11_total_step.

(* ---- cleared before use ----
   the entry created by a first fragment is built from empty vectors whatever the free lists held *)
Theorem C11_first_fragment_clean : forall p k ts, is_fragmenting (k_frag k) = true -> view (k_id k) p = None ->
  view (k_id k) (snd (process p k ts)) =
    match add (mkBuf (k_ipn k) [] [] None) (k_frag k) with
    | AddOk b' => Some (b', ts)
    | _ => None
    end.
Proof. exact first_fragment_clean. Qed.
Print Assumptions C11_first_fragment_clean.

(* ... and therefore no answer and no number of any history depends on the CONTENTS of the free
   lists or of the vectors given to return_buf: two pools with the same entries and equally long
   free lists, two histories that differ only in the returned vectors -> same answers, same stats *)
Theorem C11_free_list_contents_irrelevant : forall ops1 ops2 p q, pool_sim p q -> Forall2 rop_sim ops1 ops2 ->
  rtrace p ops1 = rtrace q ops2 /\ stats_trace p ops1 = stats_trace q ops2 /\
  pool_sim (rrun p ops1) (rrun q ops2).
Proof. exact free_list_contents_irrelevant. Qed.
Print Assumptions C11_free_list_contents_irrelevant.

(* ---- isolation with retain ----
   general form: the answers for one id inside any history are those of the id's own deliveries
   with every retain applied to its entry alone (sev_trace); likewise its entry at the end *)
Theorem C11_isolation_retain : forall ops p id, pool_wf p ->
  results_for id (rtrace p ops) = sev_trace id (view id p) (events_for id ops) /\
  view id (rrun p ops) = sev_run id (view id p) (events_for id ops).
Proof. exact isolation_retain. Qed.
Print Assumptions C11_isolation_retain.

(* retain calls that keep the observed stream (whenever they run: f id t = true for the entry's
   current timestamp, or there is no entry) do not change its answers: they are the answers
   the stream's deliveries get alone -- C11_isolation extended to retain *)
Theorem C11_isolation_keep : forall ops p id, pool_wf p -> keeps id (view id p) (events_for id ops) ->
  results_for id (rtrace p ops) = stream_trace (view id p) (deliveries (events_for id ops)).
Proof. exact isolation_keep. Qed.
Print Assumptions C11_isolation_keep.

(* sufficient: every predicate used keeps the id whatever its timestamp *)
Theorem C11_isolation_keep_always : forall ops p id, pool_wf p ->
  (forall f, In (RRetain f) ops -> forall t, f id t = true) ->
  results_for id (rtrace p ops) = stream_trace (view id p) (deliveries (events_for id ops)).
Proof. exact isolation_keep_always. Qed.
Print Assumptions C11_isolation_keep_always.

(* the histories of C11_isolation are the histories without retain *)
Theorem C11_rtrace_embed : forall ops p,
  rtrace p (map rop_of ops) = pool_trace p ops /\
  forall id, deliveries (events_for id (map rop_of ops)) = for_id id ops.
Proof. exact embed_both. Qed.
Print Assumptions C11_rtrace_embed.

(* ---- eviction of a partially received stream: its later fragments start a new stream.  The
   answers after the eviction are sev_trace from NO entry over the later events: a function of
   the later events alone ---- *)
Theorem C11_evict_restart : forall ops1 f ops2 p id b t, pool_wf p ->
  view id (rrun p ops1) = Some (b, t) -> f id t = false ->
  results_for id (rtrace p (ops1 ++ RRetain f :: ops2)) =
    results_for id (rtrace p ops1) ++ sev_trace id None (events_for id ops2).
Proof. exact evict_partial. Qed.
Print Assumptions C11_evict_restart.

(* ... so nothing received before the eviction can appear in a later answer: two pools, two
   different pasts of the stream, both evicted, the same later history -> the same later answers *)
Theorem C11_evict_no_leak : forall ops1 ops1' f f' ops2 p p' id, pool_wf p -> pool_wf p' ->
  retain_view id f (view id (rrun p ops1)) = None ->
  retain_view id f' (view id (rrun p' ops1')) = None ->
  skipn (length (results_for id (rtrace p ops1))) (results_for id (rtrace p (ops1 ++ RRetain f :: ops2))) =
  skipn (length (results_for id (rtrace p' ops1'))) (results_for id (rtrace p' (ops1' ++ RRetain f' :: ops2))).
Proof. exact evict_no_leak. Qed.
Print Assumptions C11_evict_no_leak.

(* ... and the rest of the evicted datagram never completes on its own: as long as the fragments
   delivered AFTER the eviction do not cover P, every answer is `nothing` *)
Theorem C11_evicted_rest_never_completes : forall P, len P <= 65535 -> forall ops1 f ops2 p id, pool_wf p ->
  retain_view id f (view id (rrun p ops1)) = None ->
  (forall g, In (RRetain g) ops2 -> forall t, g id t = true) ->
  let ks := deliveries (events_for id ops2) in
  (forall kt, In kt ks -> pkt_ok P kt) ->
  (forall j, (j <= length ks)%nat -> ~ Covered P (firstn j (frags_of ks))) ->
  results_for id (rtrace p (ops1 ++ RRetain f :: ops2)) =
    results_for id (rtrace p ops1) ++ map (fun _ => PNone) ks.
Proof. exact evicted_rest_never_completes. Qed.
Print Assumptions C11_evicted_rest_never_completes.

(* C11_pool_no_leak for histories with retain *)
Theorem C11_pool_no_leak_retain : forall ops id,
  Forall res_ok (results_for id (rtrace pool_new ops)).
Proof. exact pool_no_leak_retain. Qed.
Print Assumptions C11_pool_no_leak_retain.

(* ---- non-vacuity of the second part ---- *)
Definition exK (id : N) (f : frag) : pkt := mkPkt [id] true 17 f.
Definition exA : frag := mkFrag 0 true [1;2;3;4;5;6;7;8].
Definition exZ : frag := mkFrag 1 false [9].
(* stream 1 half received, stream 2 complete, a failing first fragment for stream 3, the payload
   returned, stream 1 evicted by a predicate on the timestamp, its late fragment starts afresh *)
Definition exHist : list rop :=
  [RDeliver (exK 1 exA) 1; RDeliver (exK 2 exA) 2; RDeliver (exK 2 exZ) 3;
   RDeliver (exK 3 (mkFrag 0 true [1;2;3])) 4; RReturn [Some 1; Some 2]; RRetain (fun _ t => 2 <=? t);
   RDeliver (exK 1 exZ) 5; RDeliver (exK 1 exA) 6].

Example C11_ex_hist_answers : map snd (rtrace pool_new exHist) =
  [PNone; PNone; PDone 17 true (map Some [1;2;3;4;5;6;7;8;9]); PErr (VUnaligned 0 3); PNone;
   PDone 17 true (map Some [1;2;3;4;5;6;7;8;9])].
Proof. vm_compute. reflexivity. Qed.

Example C11_ex_hist_stats : stats_trace pool_new exHist =
  [(1,0,0); (2,0,0); (1,0,1); (1,1,1); (1,2,1); (0,3,2); (1,2,1); (0,2,2)].
Proof. vm_compute. reflexivity. Qed.

Example C11_ex_hist_ledger : snd (lrun pool_new ledger0 exHist) = mkLedger 1 3 2 0.
Proof. vm_compute. reflexivity. Qed.

(* hypotheses of C11_release / C11_release_first_err / C11_evict_restart are satisfiable *)
Example C11_ex_release_hyp :
  let p := rrun pool_new (firstn 2 exHist) in
  pool_wf p /\ fst (process p (exK 2 exZ) 3) = PDone 17 true (map Some [1;2;3;4;5;6;7;8;9]) /\
  view [3] p = None /\ fst (process p (exK 3 (mkFrag 0 true [1;2;3])) 4) = PErr (VUnaligned 0 3).
Proof.
  split; [apply C11_wf_reachable; constructor|]. vm_compute. repeat split; reflexivity.
Qed.

Example C11_ex_evict_hyp :
  exists b, view [1] (rrun pool_new (firstn 5 exHist)) = Some (b, 1) /\ (2 <=? 1) = false /\
  keeps [2] (view [2] pool_new) (events_for [2] exHist) /\ ~ keeps [1] (view [1] pool_new) (events_for [1] exHist).
Proof.
  eexists. split; [vm_compute; reflexivity|]. split; [reflexivity|]. split.
  - vm_compute. tauto.
  - vm_compute. intros [H _]. discriminate H.
Qed.

(* two histories that differ only in the returned vector, two pools that differ only in the
   contents of the free lists *)
Example C11_ex_sim :
  pool_sim (mkPool [] [[Some 255; Some 254]] [[mkRange 0 8]]) (mkPool [] [[]] [[]]) /\
  Forall2 rop_sim [RReturn [Some 1]; RRetain (fun _ t => 2 <=? t)] [RReturn []; RRetain (fun _ t => negb (t <? 2))].
Proof.
  split; [vm_compute; auto|]. constructor; [constructor|]. constructor; [|constructor].
  constructor. intros id t. destruct (N.leb_spec 2 t), (N.ltb_spec t 2); try reflexivity; lia.
Qed.

(* ======================================================================
   The step  packet -> (stream id, offset, more-fragments flag, payload, protocol)
   (third part; model and wire specification: Defrag/PacketStep.v, lemmas:
   Defrag/PacketStepProofs.v).

   Model : `frag_key_of p chan` = the `match &slice.net { .. }` at the start of
           `IpDefragPool::process_sliced_packet` over the model of `SlicedPacket` and the accessor
           models of Parse/Access.v (Ipv4HeaderSlice::{is_fragmenting_payload, source, destination,
           identification, fragments_offset, more_fragments}, the Ipv6ExtensionSliceIter loop that
           looks for the first fragment header, Ipv6FragmentHeaderSlice::{is_fragmenting_payload,
           to_header}, Ipv6HeaderSlice::{source, destination}, SlicedPacket::vlan_ids with
           SingleVlanSlice::vlan_identifier, payload().ip_number); `frag_id` = `IpFragId` with
           `IpFragVersionSpecId` (derived Eq = structural equality); `encode_id` embeds it into the
           abstract ids `fid` of the pool model; `process_sliced_packet` = extraction, then
           `Model.process`; `pk_trace` = a history of received FRAMES (bytes), each sliced with one
           of the four entry points of SlicedPacket (a frame the slicer rejects never reaches the pool).
   Spec  : `wire_key bs v chan` = the same data read off the wire: the layers / windows of the
           reference decoder (Parse/WireSpec.v) and the RFC fields at their ABSOLUTE positions
           (Parse/Fields.v): IPv4 source = octets 12..16, destination = octets 16..20,
           identification = octets 4..6, MF = bit 2 and fragment offset = bits 3..16 of octets 6..8
           of the IPv4 header; IPv6 source = octets 8..24, destination = octets 24..40 of the IPv6
           header; the fragment header = the first header with number 44 found by walking the RFC 8200
           chain from the IPv6 header's next-header octet (`frag_pos`), its identification = octets
           4..8, fragment offset = first 13 bits and M = last bit of octets 2..4; VLAN ids = the 12
           VID bits of the TCI of every 802.1Q tag, outermost first; payload protocol number and
           payload window = those of the reference decoder's IP payload.
   ====================================================================== *)
From EP Require Import Parse.Types Parse.Slices Parse.Cursor Parse.View Parse.WireSpec
  Parse.Access Parse.Fields.
From EP Require Import Defrag.PacketStep Defrag.PacketStepProofs.

(* (a) the structured id: two ids are the same stream of the pool model exactly when they agree on
   ALL of: VLAN ids (all of them, in order), IP version, source, destination, identification,
   payload protocol number, channel *)
Theorem C11_id_injective : forall a b,
  encode_id a = encode_id b <->
  fi_vlans a = fi_vlans b /\
  id_is_v4 (fi_ip a) = id_is_v4 (fi_ip b) /\
  id_src (fi_ip a) = id_src (fi_ip b) /\
  id_dst (fi_ip a) = id_dst (fi_ip b) /\
  id_ident (fi_ip a) = id_ident (fi_ip b) /\
  fi_ipn a = fi_ipn b /\
  fi_chan a = fi_chan b.
Proof. exact same_stream_iff. Qed.
Print Assumptions C11_id_injective.

(* (a)+(c) every frame, every entry point: the slicing model never reaches Bug; when the slicer
   accepts, the reference decoder accepts with the same layers, `frag_key_of` never reaches Bug
   (no out-of-range read, no push on a full ArrayVec, no fuel exhaustion) and its result -- id,
   offset, flag, payload window, version -- IS the wire key; the bytes handed to IpDefragBuf::add are
   the octets of the payload window; when the slicer rejects, the frame is no fragment by the wire
   formats either *)
Theorem C11_packet_key : forall e bs chan, bytes_ok bs ->
  match slice_with e bs with
  | Ok p =>
      wire_with e bs = VOk (View.view p) /\
      exists ok, frag_key_of p chan = Ok ok /\
        option_map key_view ok = wire_frag_of e bs chan /\
        forall k, ok = Some k ->
          k_frag (pkt_of_key k) = frag_of_wire bs (key_view k) /\
          k_ipn (pkt_of_key k) = fi_ipn (fk_id k) /\
          k_v4 (pkt_of_key k) = id_is_v4 (fi_ip (fk_id k)) /\
          is_fragmenting (k_frag (pkt_of_key k)) = true
  | Err _ => wire_frag_of e bs chan = None
  | Bug _ => False
  end.
Proof. exact packet_key. Qed.
Print Assumptions C11_packet_key.

(* (a) on the wire, IPv4: two fragments belong to the same stream exactly when they agree on the VID
   bits of all their VLAN tags, octets 12..16, 16..20 and 4..6 of the IPv4 header, the payload
   protocol number and the channel -- TTL, DSCP/ECN, checksum, options, MAC addresses, PCP/DEI,
   total length, offset and flags do not enter *)
Theorem C11_same_stream_v4_wire : forall bs1 bs2 v1 v2 c1 c2 h1 a1 pl1 h2 a2 pl2 w1 w2,
  v_net v1 = Some (VIpv4 h1 a1 pl1) -> v_net v2 = Some (VIpv4 h2 a2 pl2) ->
  wire_key bs1 v1 c1 = Some w1 -> wire_key bs2 v2 c2 = Some w2 ->
  (encode_id (wf_id w1) = encode_id (wf_id w2) <->
   wire_vids bs1 (v_exts v1) = wire_vids bs2 (v_exts v2) /\
   bytes_at bs1 (fst h1 + 12) 4 = bytes_at bs2 (fst h2 + 12) 4 /\
   bytes_at bs1 (fst h1 + 16) 4 = bytes_at bs2 (fst h2 + 16) 4 /\
   W bs1 (fst h1 + 4) = W bs2 (fst h2 + 4) /\
   vip_number pl1 = vip_number pl2 /\
   c1 = c2).
Proof. exact same_stream_v4_wire. Qed.
Print Assumptions C11_same_stream_v4_wire.

(* IPv6: octets 8..24 and 24..40 of the IPv6 header, octets 4..8 of the first fragment header of the
   chain (at q1 / q2) -- traffic class, flow label, hop limit and the other extension headers do
   not enter *)
Theorem C11_same_stream_v6_wire : forall bs1 bs2 v1 v2 c1 c2 h1 f1 g1 x1 pl1 h2 f2 g2 x2 pl2 q1 q2 w1 w2,
  v_net v1 = Some (VIpv6 h1 f1 g1 x1 pl1) -> v_net v2 = Some (VIpv6 h2 f2 g2 x2 pl2) ->
  frag_pos bs1 (S (N.to_nat (snd x1))) (B bs1 (fst h1 + 6)) (fst x1) (fst x1 + snd x1) = Some q1 ->
  frag_pos bs2 (S (N.to_nat (snd x2))) (B bs2 (fst h2 + 6)) (fst x2) (fst x2 + snd x2) = Some q2 ->
  wire_key bs1 v1 c1 = Some w1 -> wire_key bs2 v2 c2 = Some w2 ->
  (encode_id (wf_id w1) = encode_id (wf_id w2) <->
   wire_vids bs1 (v_exts v1) = wire_vids bs2 (v_exts v2) /\
   bytes_at bs1 (fst h1 + 8) 16 = bytes_at bs2 (fst h2 + 8) 16 /\
   bytes_at bs1 (fst h1 + 24) 16 = bytes_at bs2 (fst h2 + 24) 16 /\
   num_at bs1 (q1 + 4) 4 = num_at bs2 (q2 + 4) 4 /\
   vip_number pl1 = vip_number pl2 /\
   c1 = c2).
Proof. exact same_stream_v6_wire. Qed.
Print Assumptions C11_same_stream_v6_wire.

(* an IPv4 and an IPv6 fragment never share a stream, whatever their addresses / identification *)
Theorem C11_diff_version_wire : forall bs1 bs2 v1 v2 c1 c2 h1 a1 pl1 h2 f2 g2 x2 pl2 w1 w2,
  v_net v1 = Some (VIpv4 h1 a1 pl1) -> v_net v2 = Some (VIpv6 h2 f2 g2 x2 pl2) ->
  wire_key bs1 v1 c1 = Some w1 -> wire_key bs2 v2 c2 = Some w2 ->
  encode_id (wf_id w1) <> encode_id (wf_id w2).
Proof. exact diff_version_wire. Qed.
Print Assumptions C11_diff_version_wire.

(* the two together: for two frames the slicer accepts and the crate treats as fragments, the pool
   uses the same stream id exactly when their wire ids are equal *)
Theorem C11_packets_same_stream : forall e1 bs1 c1 p1 k1 e2 bs2 c2 p2 k2,
  bytes_ok bs1 -> bytes_ok bs2 ->
  slice_with e1 bs1 = Ok p1 -> slice_with e2 bs2 = Ok p2 ->
  frag_key_of p1 c1 = Ok (Some k1) -> frag_key_of p2 c2 = Ok (Some k2) ->
  exists w1 w2,
    wire_key bs1 (View.view p1) c1 = Some w1 /\ wire_key bs2 (View.view p2) c2 = Some w2 /\
    wire_with e1 bs1 = VOk (View.view p1) /\ wire_with e2 bs2 = VOk (View.view p2) /\
    (k_id (pkt_of_key k1) = k_id (pkt_of_key k2) <-> wf_id w1 = wf_id w2).
Proof. exact packets_same_stream. Qed.
Print Assumptions C11_packets_same_stream.

(* (b) pass-through: `frag_key_of` answers `None` exactly when the packet is not a fragment on the
   wire (IPv4: MF = 0 and offset = 0; IPv6: no fragment header in the chain, or M = 0 and offset = 0
   in the first one; ARP / no network layer), and then process_sliced_packet returns
   (nothing, pool unchanged) *)
Theorem C11_packet_passthrough : forall e bs p chan, bytes_ok bs -> slice_with e bs = Ok p ->
  (frag_key_of p chan = Ok None <-> wire_unfragmented bs (View.view p)) /\
  (wire_unfragmented bs (View.view p) ->
   forall pl ts, process_sliced_packet pl p ts chan = Ok (PNone, pl)).
Proof. exact packet_passthrough. Qed.
Print Assumptions C11_packet_passthrough.

(* (c) a fragment: process_sliced_packet = the pool model of Defrag/Model.v run on the WIRE fields:
   stream id, offset (f_off = offset field * 8), M flag, the octets of the IP payload window, the
   payload protocol number *)
Theorem C11_packet_fragment : forall e bs p chan w, bytes_ok bs -> slice_with e bs = Ok p ->
  wire_key bs (View.view p) chan = Some w ->
  forall pl ts,
    process_sliced_packet pl p ts chan =
      Ok (process pl (mkPkt (encode_id (wf_id w)) (id_is_v4 (fi_ip (wf_id w))) (fi_ipn (wf_id w))
                        (frag_of_wire bs w)) ts) /\
    is_fragmenting (frag_of_wire bs w) = true.
Proof. exact packet_fragment. Qed.
Print Assumptions C11_packet_fragment.

(* (d) isolation over FRAME histories: whatever frames arrive in whatever order on whatever channel
   (fragments of other datagrams, unfragmented packets, frames the slicer rejects, buffer returns),
   the answers to the frames whose wire id is i are the answers its own fragments get alone *)
Theorem C11_packets_isolation : forall pl i ops, Forall op_bytes_ok ops ->
  exists tr, pk_trace pl ops = Ok tr /\
    answers_for (encode_id i) tr =
      stream_trace (Defrag.Proofs.view (encode_id i) pl) (map (pkt_for i) (wire_for i ops)).
Proof. exact packets_isolation. Qed.
Print Assumptions C11_packets_isolation.

(* ... hence: the frames with wire id i are fragments of P; nothing is returned while they do not
   cover P, and the frame that completes the cover is answered with P (protocol number and length
   source of i), exactly once -- inside any interleaving with frames of datagrams that differ from i
   in at least one key field (C11_id_injective / C11_same_stream_v4_wire / _v6_wire) *)
Theorem C11_packets_complete : forall P i ops pl ks f ts,
  len P <= 65535 -> Forall op_bytes_ok ops ->
  Defrag.Proofs.view (encode_id i) pl = None ->
  wire_for i ops = ks ++ [(f, ts)] ->
  (forall g, In g (map fst ks) -> frag_of P g) -> frag_of P f ->
  (forall j, (j <= length ks)%nat -> ~ Covered P (firstn j (map fst ks))) ->
  Covered P (map fst ks ++ [f]) ->
  exists tr, pk_trace pl ops = Ok tr /\
    answers_for (encode_id i) tr =
      map (fun _ => PNone) ks ++ [PDone (fi_ipn i) (id_is_v4 (fi_ip i)) (map Some P)].
Proof. exact packets_complete. Qed.
Print Assumptions C11_packets_complete.

(* ---- non-vacuity ---- *)
Definition pk_eth (et : N) : bytes := [7;8;9;10;11;12; 1;2;3;4;5;6; et / 256; et mod 256].
Definition pk_vlan (tci et : N) : bytes := [tci / 256; tci mod 256; et / 256; et mod 256].
(* IPv4, 20 octets: DSCP/ECN octet, identification, flags+offset, TTL, protocol 17, 10.0.0.1 -> dst *)
Definition pk_v4 (tos ident flags_fo ttl : N) (dst : bytes) (payload : bytes) : bytes :=
  [69; tos; 0; 20 + len payload; ident / 256; ident mod 256; flags_fo / 256; flags_fo mod 256;
   ttl; 17; 0; 0; 10; 0; 0; 1] ++ dst ++ payload.
(* IPv6 + hop-by-hop (8 octets) + fragment header; hd4 = octets 0..4 (version, traffic class, flow label) *)
Definition pk_v6 (hd4 : bytes) (hop : N) (fo_m ident : N) (payload : bytes) : bytes :=
  hd4 ++ [0; 16 + len payload; 0; hop] ++
  [32;1;13;184;0;0;0;0;0;0;0;0;0;0;0;1] ++ [32;1;13;184;0;0;0;0;0;0;0;0;0;0;0;2] ++
  [44; 0; 1; 4; 0; 0; 0; 0] ++
  [17; 0; fo_m / 256; fo_m mod 256; 0; 0; ident / 256; ident mod 256] ++ payload.

(* VLAN 5 (PCP 3, DEI 1 set: TCI 0x7005) / IPv4 id 7, MF, offset 0, 8 octets *)
Definition exA1 : bytes := pk_eth 33024 ++ pk_vlan 28677 2048 ++ pk_v4 0 7 8192 64 [10;0;0;2] [1;2;3;4;5;6;7;8].
(* the rest of the same datagram with another TTL, DSCP, PCP: offset 1, last *)
Definition exA2 : bytes := pk_eth 33024 ++ pk_vlan 5 2048 ++ pk_v4 184 7 1 3 [10;0;0;2] [9;10;11].
(* differs from A in ONE bit of the destination *)
Definition exB1 : bytes := pk_eth 33024 ++ pk_vlan 5 2048 ++ pk_v4 0 7 8192 64 [10;0;0;3] [21;22;23;24;25;26;27;28].
Definition exB2 : bytes := pk_eth 33024 ++ pk_vlan 5 2048 ++ pk_v4 0 7 1 64 [10;0;0;3] [29].
(* not a fragment *)
Definition exU : bytes := pk_eth 2048 ++ pk_v4 0 7 0 64 [10;0;0;2] [0;53;0;53;0;12;0;0;1;2;3;4].
(* IPv6: hop-by-hop in front of the fragment header, identification 7, offset 1, last; traffic class / flow label set *)
Definition exV6 : bytes := pk_eth 34525 ++ pk_v6 [106;188;222;241] 9 8 7 [1;2;3].

Definition exIdA : frag_id := mkFragId [5] (IdV4 [10;0;0;1] [10;0;0;2] 7) 17 3.
Definition exIdB : frag_id := mkFragId [5] (IdV4 [10;0;0;1] [10;0;0;3] 7) 17 3.

Example C11_ex_key_v4 :
  bytes_ok exA1 /\
  exists p, SlicedPacket.from_ethernet exA1 = Ok p /\
    frag_key_of p 3 =
      Ok (Some (mkFragKey exIdA 0 true
                  (mkIpPayload 17 true LsIpv4HeaderTotalLen (38, [1;2;3;4;5;6;7;8])) true)) /\
    wire_frag_of EEthernet exA1 3 = Some (mkWireFrag exIdA 0 true (38, 8) true).
Proof.
  split; [apply bytes_okb_spec; vm_compute; reflexivity|].
  eexists. split; [vm_compute; reflexivity|]. vm_compute. repeat split.
Qed.

(* the key of an IPv6 fragment: found behind the hop-by-hop header; the flow label is not in it *)
Example C11_ex_key_v6 :
  bytes_ok exV6 /\
  exists p, SlicedPacket.from_ethernet exV6 = Ok p /\
    option_map key_view match frag_key_of p 0 with Ok o => o | _ => None end =
      Some (mkWireFrag (mkFragId [] (IdV6 [32;1;13;184;0;0;0;0;0;0;0;0;0;0;0;1]
                                          [32;1;13;184;0;0;0;0;0;0;0;0;0;0;0;2] 7) 17 0)
              1 false (70, 3) false) /\
    wire_frag_of EEthernet exV6 0 = option_map key_view match frag_key_of p 0 with Ok o => o | _ => None end.
Proof.
  split; [apply bytes_okb_spec; vm_compute; reflexivity|].
  eexists. split; [vm_compute; reflexivity|]. vm_compute. repeat split.
Qed.

(* same stream although TTL, DSCP and PCP/DEI differ; another stream when one destination bit,
   the channel or the IP version differs (IPv6 with the numerically same identification) *)
Example C11_ex_same_diff :
  option_map wf_id (wire_frag_of EEthernet exA1 3) = Some exIdA /\
  option_map wf_id (wire_frag_of EEthernet exA2 3) = Some exIdA /\
  option_map wf_id (wire_frag_of EEthernet exB1 3) = Some exIdB /\
  encode_id exIdA <> encode_id exIdB /\
  option_map wf_id (wire_frag_of EEthernet exA1 4) <> Some exIdA /\
  wire_frag_of EEthernet exU 3 = None /\
  (exists p, SlicedPacket.from_ethernet exU = Ok p /\ wire_unfragmented exU (View.view p)).
Proof.
  split; [vm_compute; reflexivity|]. split; [vm_compute; reflexivity|]. split; [vm_compute; reflexivity|].
  split; [vm_compute; discriminate|]. split; [vm_compute; discriminate|]. split; [vm_compute; reflexivity|].
  eexists. split; [vm_compute; reflexivity|]. vm_compute. split; reflexivity.
Qed.

(* two datagrams whose ids differ in one destination bit, an unfragmented packet, an IPv6 fragment and a
   buffer return, interleaved: the frame history through slicing, key extraction and the pool model *)
Definition exOps : list pk_op :=
  [KPacket EEthernet exA1 1 3; KPacket EEthernet exB2 2 3; KPacket EEthernet exU 3 3;
   KPacket EEthernet exV6 4 3; KPacket EEthernet exB1 5 3; KReturn [Some 1];
   KPacket EEthernet [1;2;3] 6 3; KPacket EEthernet exA2 7 3].

Example C11_ex_packets :
  pk_trace pool_new exOps =
    Ok [(Some (encode_id exIdA), PNone); (Some (encode_id exIdB), PNone); (None, PNone);
        (Some (encode_id (mkFragId [] (IdV6 [32;1;13;184;0;0;0;0;0;0;0;0;0;0;0;1]
                                            [32;1;13;184;0;0;0;0;0;0;0;0;0;0;0;2] 7) 17 3)), PNone);
        (Some (encode_id exIdB), PDone 17 true (map Some [21;22;23;24;25;26;27;28;29]));
        (None, PNone); (None, PNone);
        (Some (encode_id exIdA), PDone 17 true (map Some [1;2;3;4;5;6;7;8;9;10;11]))].
Proof. vm_compute. reflexivity. Qed.

(* the hypotheses of C11_packets_complete hold for datagram A inside that history *)
Example C11_ex_packets_hyp :
  let P := [1;2;3;4;5;6;7;8;9;10;11] in
  let f1 := mkFrag 0 true [1;2;3;4;5;6;7;8] in let f2 := mkFrag 1 false [9;10;11] in
  len P <= 65535 /\ Forall op_bytes_ok exOps /\ Defrag.Proofs.view (encode_id exIdA) pool_new = None /\
  wire_for exIdA exOps = [(f1, 1)] ++ [(f2, 7)] /\
  (forall g, In g (map fst [(f1, 1)]) -> frag_of P g) /\ frag_of P f2 /\
  (forall j, (j <= length [(f1, 1)])%nat -> ~ Covered P (firstn j (map fst [(f1, 1)]))) /\
  Covered P (map fst [(f1, 1)] ++ [f2]).
Proof.
  intros P f1 f2.
  assert (F1 : frag_of P f1) by (vm_compute; repeat split; discriminate).
  assert (F2 : frag_of P f2) by (vm_compute; repeat split; discriminate).
  split; [vm_compute; discriminate|]. split.
  { repeat constructor; apply bytes_okb_spec; vm_compute; reflexivity. }
  split; [reflexivity|]. split; [vm_compute; reflexivity|].
  split; [intros g [<-|[]]; exact F1|]. split; [exact F2|]. split.
  - (* no prefix holds the final fragment *)
    intros j Hj ((g & Hg & Hm) & _). destruct j as [|[|j]]; cbn in Hg, Hj.
    + destruct Hg.
    + destruct Hg as [<-|[]]. discriminate.
    + lia.
  - (* both delivered: the buffer is complete, which by C11_any_order is `Covered` *)
    apply (C11_any_order P _ 17 [] []); [vm_compute; discriminate|cbn; auto|vm_compute; reflexivity].
Qed.

(* ======================================================================
   The FRAMES of a cut reassemble.
   Defrag/CutFrames.v builds, from the wire formats alone, the frame that carries one fragment f
   (offset field, more-fragments flag, data):
     frame_v4 l h f = 12 MAC octets ++ 0..3 IEEE 802.1Q tags (any of the three TPIDs, any TCI) ++
                      0x0800 ++ RFC 791 header (IHL 5; TOS, DF, TTL, protocol <> 51, checksum,
                      addresses, identification free; total length, MF and offset from f) ++ data
     frame_v6 l h f = ... ++ 0x86DD ++ RFC 8200 header (traffic class, flow label, hop limit,
                      addresses free; payload length from f; next header 44) ++ fragment header
                      (next header not an extension header, reserved bits free, offset and M
                      from f, identification) ++ data
   Restrictions of the builders (not of the crate): no IPv4 options, no MACsec SecTAG, the IPv6
   fragment header directly behind the IPv6 header, IPv4 protocol <> 51 / IPv6 next header not
   0, 43, 44, 51, 60 (the payload of a fragment is not parsed further).
   ====================================================================== *)
From EP Require Import Defrag.CutFrames Defrag.CutFramesProofs.

(* the IPv4 frame of ANY fragment f (13 bit offset, 20 + length <= 65535, MF set or offset <> 0) is,
   by the reference decoder, a fragment with wire id (VIDs of the tags, addresses, identification,
   protocol, channel) carrying exactly f *)
Theorem C11_frame_v4_decodes : forall l h f c,
  link_ok l -> v4_ok h -> fits_v4 f -> is_fragmenting f = true ->
  exists w, wire_frag_of EEthernet (frame_v4 l h f) c = Some w /\
    wf_id w = id_v4 l h c /\ wf_v4 w = true /\ frag_of_wire (frame_v4 l h f) w = f.
Proof. exact frame_v4_decodes. Qed.
Print Assumptions C11_frame_v4_decodes.

(* ... and the MODEL of the crate (SlicedPacket::from_ethernet, the key extraction at the start of
   process_sliced_packet, the packet handed to the pool) decodes it to the same id and to f *)
Theorem C11_frame_v4_model : forall l h f c,
  link_ok l -> v4_ok h -> fits_v4 f -> is_fragmenting f = true ->
  exists p k, slice_with EEthernet (frame_v4 l h f) = Ok p /\ frag_key_of p c = Ok (Some k) /\
    pkt_of_key k = mkPkt (encode_id (id_v4 l h c)) true (v4_proto h) f /\
    forall pl ts, process_sliced_packet pl p ts c =
                  Ok (process pl (mkPkt (encode_id (id_v4 l h c)) true (v4_proto h) f) ts).
Proof. exact frame_v4_model. Qed.
Print Assumptions C11_frame_v4_model.

(* the same for IPv6 with a fragment extension header *)
Theorem C11_frame_v6_decodes : forall l h f c,
  link_ok l -> v6_ok h -> fits_v6 f -> is_fragmenting f = true ->
  exists w, wire_frag_of EEthernet (frame_v6 l h f) c = Some w /\
    wf_id w = id_v6 l h c /\ wf_v4 w = false /\ frag_of_wire (frame_v6 l h f) w = f.
Proof. exact frame_v6_decodes. Qed.
Print Assumptions C11_frame_v6_decodes.

(* every payload P <= 65535, every way of cutting it at multiples of 8 (`sizes`, at least two
   non-trivial pieces: 0 < sumN sizes), every history `s` of received frames in which the frames of
   datagram i are pieces of the cut -- in any order, any piece any number of times, each frame with
   its own MACs / PCP / DEI / TTL / TOS / checksum / hop limit / flow label, IPv4 or IPv6 frames
   (sched_ok: only the key fields are shared) -- interleaved with ANY other operations that are no
   fragments of i (frames of other datagrams, unfragmented packets, garbage, buffer returns):
   through slicing, key extraction and the pool model, nothing is returned for i while the pieces
   delivered so far do not cover P, and the frame that delivers the last missing byte is answered
   with P (protocol number of i), once.  No hypothesis about decoding is left: this discharges the
   `frag_of P` hypothesis of C11_packets_complete. *)
Theorem C11_cut_frames_reassemble : forall P sizes i s pl js0 jl tl,
  len P <= 65535 -> sumN sizes * 8 <= len P -> 0 < sumN sizes ->
  Forall (sched_ok i (cut_at P 0 sizes)) s ->
  Defrag.Proofs.view (encode_id i) pl = None ->
  sched_js s = js0 ++ [(jl, tl)] ->
  (forall k, (k <= length js0)%nat ->
     ~ Covered P (map (piece (cut_at P 0 sizes)) (firstn k (map fst js0)))) ->
  Covered P (map (piece (cut_at P 0 sizes)) (map fst js0 ++ [jl])) ->
  exists tr, pk_trace pl (realize (cut_at P 0 sizes) s) = Ok tr /\
    answers_for (encode_id i) tr =
      map (fun _ => PNone) js0 ++ [PDone (fi_ipn i) (id_is_v4 (fi_ip i)) (map Some P)].
Proof. exact cut_frames_reassemble. Qed.
Print Assumptions C11_cut_frames_reassemble.

(* ---- non-vacuity ---- *)
(* VLAN 5 with PCP 3 / DEI 1, and VLAN 5 plain with other MACs; two headers that differ in TOS, DF,
   TTL and checksum but share addresses, identification 7 and protocol 17 *)
Definition cfL1 : eth_link := mkEthLink [7;8;9;10;11;12;1;2;3;4;5;6] [(33024, 28677)].
Definition cfL2 : eth_link := mkEthLink [12;11;10;9;8;7;6;5;4;3;2;1] [(33024, 5)].
Definition cfH1 : v4_fields := mkV4F 0 false 64 17 0 [10;0;0;1] [10;0;0;2] 7.
Definition cfH2 : v4_fields := mkV4F 184 true 3 17 4660 [10;0;0;1] [10;0;0;2] 7.

(* the builder reproduces the hand-written frame exA1 of the packet-step examples *)
Example C11_ex_frame_v4_bytes : frame_v4 cfL1 cfH1 (mkFrag 0 true [1;2;3;4;5;6;7;8]) = exA1.
Proof. vm_compute. reflexivity. Qed.

(* exP (19 octets) cut into 8 + 8 + 3; arrival order: piece 2, 1, 1 (duplicate), 0 -- with frames of
   datagram B, an unfragmented packet, a buffer return and garbage in between *)
Definition cfSched : list sched_item :=
  [SFrame4 cfL1 cfH1 3 2 1; SOther (KPacket EEthernet exB1 2 3); SFrame4 cfL2 cfH2 3 1 3;
   SOther (KPacket EEthernet exU 4 3); SFrame4 cfL1 cfH2 3 1 5; SOther (KReturn [Some 1]);
   SOther (KPacket EEthernet [1;2;3] 6 3); SFrame4 cfL2 cfH1 3 0 7].

Example C11_ex_cut_frames_hyp :
  len exP <= 65535 /\ sumN [1; 1] * 8 <= len exP /\ 0 < sumN [1; 1] /\
  Forall (sched_ok exIdA (cut_at exP 0 [1; 1])) cfSched /\
  Defrag.Proofs.view (encode_id exIdA) pool_new = None /\
  sched_js cfSched = [(2%nat, 1); (1%nat, 3); (1%nat, 5)] ++ [(0%nat, 7)] /\
  (forall k, (k <= 3)%nat ->
     ~ Covered exP (map (piece (cut_at exP 0 [1; 1])) (firstn k [2; 1; 1]%nat))) /\
  Covered exP (map (piece (cut_at exP 0 [1; 1])) ([2; 1; 1] ++ [0])%nat) /\
  pk_trace pool_new (realize (cut_at exP 0 [1; 1]) cfSched) =
    Ok [(Some (encode_id exIdA), PNone); (Some (encode_id exIdB), PNone); (Some (encode_id exIdA), PNone);
        (None, PNone); (Some (encode_id exIdA), PNone); (None, PNone); (None, PNone);
        (Some (encode_id exIdA), PDone 17 true (map Some exP))].
Proof.
  split; [vm_compute; discriminate|]. split; [vm_compute; discriminate|]. split; [reflexivity|].
  split.
  { repeat apply Forall_cons; [| | | | | | | |apply Forall_nil].
    (* the foreign operations *)
    2, 4, 6, 7: apply foreignb_spec; vm_compute; reflexivity.
    (* the four frames: `split` closes the equations and strict bounds of link_ok, v4_ok, the id and
       fits_v4; left are the `<>` / `<=` on N, the byte lists, and the bounds in nat and the tag list *)
    all: cbn [sched_ok]; repeat split.
    all: try discriminate.
    all: try (apply bytes_okb_spec; vm_compute; reflexivity).
    all: repeat constructor. }
  split; [reflexivity|]. split; [reflexivity|]. split.
  { intros k Hk (_ & Hc). destruct (Hc 0) as (g & Hg & Hr & _); [vm_compute; reflexivity|].
    destruct k as [|[|[|[|k]]]]; [| | | |lia]; cbn [firstn map In] in Hg;
      repeat (destruct Hg as [<-|Hg]; [revert Hr; vm_compute; intros Hr; exact (Hr eq_refl)|]); destruct Hg. }
  split; [|vm_compute; reflexivity].
  (* every piece delivered: the buffer is complete, which by C11_cut_any_order is `Covered` *)
  apply (C11_cut_any_order exP [1; 1] _ 17 [] []);
    [vm_compute; discriminate|vm_compute; discriminate| |vm_compute; reflexivity].
  intros f. vm_compute. tauto.
Qed.

(* IPv6: traffic class 0xAB, flow label 0xCDEF1, identification 0x01020304, reserved bits set; the
   two frames of exP cut into 16 + 3, last piece first *)
Definition cfL0 : eth_link := mkEthLink [7;8;9;10;11;12;1;2;3;4;5;6] [].
Definition cfH6 : v6_fields :=
  mkV6F 171 843505 9 17 [32;1;13;184;0;0;0;0;0;0;0;0;0;0;0;1] [32;1;13;184;0;0;0;0;0;0;0;0;0;0;0;2]
        16909060 255 3.
Example C11_ex_cut_frames_v6 :
  link_ok cfL0 /\ v6_ok cfH6 /\ Forall fits_v6 (cut_at exP 0 [2]) /\
  wire_frag_of EEthernet (frame_v6 cfL0 cfH6 (piece (cut_at exP 0 [2]) 1)) 0 =
    Some (mkWireFrag (id_v6 cfL0 cfH6 0) 2 false (62, 3) false) /\
  pk_trace pool_new (realize (cut_at exP 0 [2]) [SFrame6 cfL0 cfH6 0 1 1; SFrame6 cfL0 cfH6 0 0 2]) =
    Ok [(Some (encode_id (id_v6 cfL0 cfH6 0)), PNone);
        (Some (encode_id (id_v6 cfL0 cfH6 0)), PDone 17 false (map Some exP))].
Proof.
  split; [split; [reflexivity|split; [apply bytes_okb_spec; reflexivity|split; [cbn; lia|constructor]]]|].
  split; [repeat split; try reflexivity; try discriminate; apply bytes_okb_spec; reflexivity|].
  split.
  { repeat constructor; try (vm_compute; reflexivity); try (vm_compute; discriminate);
      apply bytes_okb_spec; vm_compute; reflexivity. }
  split; vm_compute; reflexivity.
Qed.
(* the same with the deliveries given by piece INDEX: all pieces non-empty; the frames of datagram i
   arrive as ANY list over the indices 0 .. length sizes -- any permutation, any piece repeated any
   number of times -- whose last element jl is the one index that had not been delivered before:
   PNone for every earlier frame, P for that one *)
Theorem C11_cut_frames_any_order : forall P sizes i s pl js0 jl tl,
  len P <= 65535 -> sumN sizes * 8 <= len P -> sizes <> [] -> Forall (fun n => 0 < n) sizes ->
  Forall (sched_ok i (cut_at P 0 sizes)) s ->
  Defrag.Proofs.view (encode_id i) pl = None ->
  sched_js s = js0 ++ [(jl, tl)] ->
  ~ In jl (map fst js0) ->
  (forall j, (j <= length sizes)%nat -> In j (map fst js0 ++ [jl])) ->
  exists tr, pk_trace pl (realize (cut_at P 0 sizes) s) = Ok tr /\
    answers_for (encode_id i) tr =
      map (fun _ => PNone) js0 ++ [PDone (fi_ipn i) (id_is_v4 (fi_ip i)) (map Some P)].
Proof. exact cut_frames_any_order. Qed.
Print Assumptions C11_cut_frames_any_order.

Example C11_ex_cut_frames_any_order_hyp :
  [1; 1] <> [] /\ Forall (fun n => 0 < n) [1; 1] /\
  sched_js cfSched = [(2%nat, 1); (1%nat, 3); (1%nat, 5)] ++ [(0%nat, 7)] /\
  ~ In 0%nat (map fst [(2%nat, 1); (1%nat, 3); (1%nat, 5)]) /\
  (forall j, (j <= length [1; 1])%nat -> In j (map fst [(2%nat, 1); (1%nat, 3); (1%nat, 5)] ++ [0%nat])).
Proof.
  split; [discriminate|]. split; [repeat constructor|]. split; [reflexivity|]. split.
  - cbn [map fst In]. intros [H|[H|[H|[]]]]; discriminate.
  - intros j Hj. cbn [length] in Hj. cbn [map fst app In].
    destruct j as [|[|[|j]]]; [right; right; right; left; reflexivity|right; left; reflexivity|left; reflexivity|lia].
Qed.
