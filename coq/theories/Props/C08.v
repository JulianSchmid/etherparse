(* Props/C08.v -- property C08: every header value survives encode -> decode.
   Each theorem is the named lemma of the proof files (Roundtrip/<Type>Proofs.v); the
   Examples are test vectors checked by evaluation.
   Per type T:  C08_T_ser_agree, C08_T_dec_enc, C08_T_enc_dec (+ C08_T_spec: the
   serialiser writes the RFC layout of Roundtrip/Spec.v). *)
From EP Require Import Base.Bytes Roundtrip.Common Roundtrip.Spec.
From EP Require Roundtrip.Tcp Roundtrip.TcpProofs Roundtrip.Ipv4 Roundtrip.Ipv4Proofs.
From EP Require Checksum.Model.
From EP Require Roundtrip.Frag Roundtrip.FragProofs.
Local Open Scope N_scope.

(* ------------------------------------------------------------------ TcpHeader *)
Module TCP.
Import Roundtrip.Tcp Roundtrip.TcpProofs.

(* to_bytes and write (to a Vec that already holds `out`) produce the same bytes,
   header_len many.  TcpHeader has no write_to_slice. *)
Theorem C08_Tcp_ser_agree : forall h out, wf_tcp h = true ->
  exists e, to_bytes h = Some e /\ write out h = Some (out ++ e) /\ len e = header_len h.
Proof. exact tcp_ser_agree. Qed.
Print Assumptions C08_Tcp_ser_agree.

(* every well-formed value (all field values, every options length 0,4..40, any
   stale bytes in the buffer behind `len`), followed by any bytes `rest`:
   from_slice and read return the value (buffer zeroed behind len = what
   PartialEq ignores) and exactly `rest` *)
Theorem C08_Tcp_dec_enc : forall h rest, wf_tcp h = true ->
  exists e, to_bytes h = Some e /\ from_slice (e ++ rest) = Ok (norm h, rest)
            /\ read (e ++ rest) = Ok (norm h, rest) /\ tcp_eqb (norm h) h = true.
Proof. exact tcp_dec_enc. Qed.
Print Assumptions C08_Tcp_dec_enc.

(* every accepted byte string: the value is well-formed, re-encoding reproduces the
   consumed bytes outside the reserved bits 1-3 of byte 12, decoding again gives
   the same value *)
Theorem C08_Tcp_enc_dec : forall bs h rest, bytes_ok bs -> from_slice bs = Ok (h, rest) ->
  wf_tcp h = true /\ norm h = h /\
  exists e, to_bytes h = Some e /\ bs = take (header_len h) bs ++ rest
            /\ agree (keep_mask (header_len h)) e (take (header_len h) bs)
            /\ from_slice e = Ok (h, []).
Proof. exact tcp_enc_dec. Qed.
Print Assumptions C08_Tcp_enc_dec.

Theorem C08_Tcp_spec : forall h, wf_tcp h = true ->
  to_bytes h = Some (tcp_layout (source_port h) (destination_port h) (sequence_number h)
    (acknowledgment_number h) (ns h) (cwr h) (ece h) (urg h) (ack h) (psh h) (rst h) (syn h) (fin h)
    (window_size h) (checksum h) (urgent_pointer h) (take (o_len (options h)) (o_buf (options h)))).
Proof. exact tcp_spec. Qed.
Print Assumptions C08_Tcp_spec.

(* non-vacuity: all-ones fields, 40 option bytes, stale buffer *)
Definition ex_max : TcpHeader :=
  {| source_port := 65535; destination_port := 65535; sequence_number := 4294967295;
     acknowledgment_number := 4294967295; ns := true; fin := true; syn := true; rst := true;
     psh := true; ack := true; urg := true; ece := true; cwr := true; window_size := 65535;
     checksum := 65535; urgent_pointer := 65535;
     options := {| o_len := 40; o_buf := repeat 255 40 |} |}.
Definition ex_stale : TcpHeader :=
  {| source_port := 1; destination_port := 2; sequence_number := 3;
     acknowledgment_number := 4; ns := false; fin := false; syn := true; rst := false;
     psh := false; ack := false; urg := false; ece := false; cwr := false; window_size := 5;
     checksum := 6; urgent_pointer := 7;
     options := {| o_len := 4; o_buf := [1; 1; 1; 0] ++ repeat 170 36 |} |}.
Example C08_Tcp_ex_wf : wf_tcp ex_max = true /\ wf_tcp ex_stale = true.
Proof. vm_compute. repeat split. Qed.
Example C08_Tcp_ex_bytes : to_bytes ex_stale =
  Some [0; 1; 0; 2; 0; 0; 0; 3; 0; 0; 0; 4; 96; 2; 0; 5; 0; 6; 0; 7; 1; 1; 1; 0].
Proof. vm_compute. reflexivity. Qed.
Example C08_Tcp_ex_dec : exists h,
  from_slice [0; 1; 0; 2; 0; 0; 0; 3; 0; 0; 0; 4; 110; 2; 0; 5; 0; 6; 0; 7; 1; 1; 1; 0; 9] = Ok (h, [9])
  /\ tcp_eqb h ex_stale = true.
Proof. eexists. split; [vm_compute; reflexivity|]. vm_compute. reflexivity. Qed.
End TCP.

(* ------------------------------------------------------------------ Ipv4Header *)
Module IPV4.
Import Checksum.Model Roundtrip.Ipv4 Roundtrip.Ipv4Proofs.

(* to_bytes and write_raw agree (Ipv4Header has no write_to_slice) *)
Theorem C08_Ipv4_ser_agree : forall h out, wf_ip4 h = true ->
  exists e, ip4_to_bytes h = Some e /\ ip4_write_raw out h = Some (out ++ e) /\ len e = ip4_header_len h.
Proof. exact ip4_ser_agree. Qed.
Print Assumptions C08_Ipv4_ser_agree.

(* write() deliberately differs: it stores calc_header_checksum() instead of the
   header_checksum field; it equals to_bytes exactly when the field is consistent *)
Theorem C08_Ipv4_write_recomputes : forall e h out, wf_ip4 h = true ->
  exists ck, ip4_calc_checksum e h = Some ck /\
    (ck < 65536 -> exists b, ip4_to_bytes (ip4_set_checksum h ck) = Some b /\ ip4_write e out h = Some (out ++ b)) /\
    (i4_header_checksum h = ck -> exists b, ip4_to_bytes h = Some b /\ ip4_write e out h = Some (out ++ b)).
Proof. exact ip4_write_recomputes. Qed.
Print Assumptions C08_Ipv4_write_recomputes.

Theorem C08_Ipv4_dec_enc : forall h rest, wf_ip4 h = true ->
  exists e, ip4_to_bytes h = Some e /\ ip4_from_slice (e ++ rest) = Ok (ip4_norm h, rest)
            /\ ip4_read (e ++ rest) = Ok (ip4_norm h, rest) /\ ip4_eqb (ip4_norm h) h = true.
Proof. exact ip4_dec_enc. Qed.
Print Assumptions C08_Ipv4_dec_enc.

(* reserved: bit 7 of byte 6 *)
Theorem C08_Ipv4_enc_dec : forall bs h rest, bytes_ok bs -> ip4_from_slice bs = Ok (h, rest) ->
  wf_ip4 h = true /\ ip4_norm h = h /\
  exists e, ip4_to_bytes h = Some e /\ bs = take (ip4_header_len h) bs ++ rest
            /\ agree (ip4_keep_mask (ip4_header_len h)) e (take (ip4_header_len h) bs)
            /\ ip4_from_slice e = Ok (h, []).
Proof. exact ip4_enc_dec. Qed.
Print Assumptions C08_Ipv4_enc_dec.

Theorem C08_Ipv4_spec : forall h, wf_ip4 h = true ->
  ip4_to_bytes h = Some (ipv4_layout (i4_dscp h) (i4_ecn h) (i4_total_len h) (i4_identification h)
    (i4_dont_fragment h) (i4_more_fragments h) (i4_fragment_offset h) (i4_time_to_live h) (i4_protocol h)
    (i4_header_checksum h) (i4_source h) (i4_destination h)
    (take (i4o_len (i4_options h)) (i4o_buf (i4_options h)))).
Proof. exact ip4_spec. Qed.
Print Assumptions C08_Ipv4_spec.

Definition ex_max : Ipv4Header :=
  {| i4_dscp := 63; i4_ecn := 3; i4_total_len := 65535; i4_identification := 65535;
     i4_dont_fragment := true; i4_more_fragments := true; i4_fragment_offset := 8191;
     i4_time_to_live := 255; i4_protocol := 255; i4_header_checksum := 65535;
     i4_source := [255; 255; 255; 255]; i4_destination := [255; 255; 255; 255];
     i4_options := {| i4o_len := 40; i4o_buf := repeat 255 40 |} |}.
Definition ex_stale : Ipv4Header :=
  {| i4_dscp := 1; i4_ecn := 2; i4_total_len := 24; i4_identification := 3;
     i4_dont_fragment := false; i4_more_fragments := true; i4_fragment_offset := 4660;
     i4_time_to_live := 64; i4_protocol := 6; i4_header_checksum := 0;
     i4_source := [10; 0; 0; 1]; i4_destination := [10; 0; 0; 2];
     i4_options := {| i4o_len := 4; i4o_buf := [1; 1; 1; 0] ++ repeat 170 36 |} |}.
Example C08_Ipv4_ex_wf : wf_ip4 ex_max = true /\ wf_ip4 ex_stale = true.
Proof. vm_compute. repeat split. Qed.
Example C08_Ipv4_ex_bytes : ip4_to_bytes ex_stale =
  Some [70; 6; 0; 24; 0; 3; 50; 52; 64; 6; 0; 0; 10; 0; 0; 1; 10; 0; 0; 2; 1; 1; 1; 0].
Proof. vm_compute. reflexivity. Qed.
Example C08_Ipv4_ex_dec : exists h,
  ip4_from_slice [70; 6; 0; 24; 0; 3; 178; 52; 64; 6; 0; 0; 10; 0; 0; 1; 10; 0; 0; 2; 1; 1; 1; 0; 9] = Ok (h, [9])
  /\ ip4_eqb h ex_stale = true.
Proof. eexists. split; [vm_compute; reflexivity|]. vm_compute. reflexivity. Qed.
End IPV4.

(* ------------------------------------------------------------------ Ipv6FragmentHeader *)
Module FRAG.
Import Roundtrip.Frag Roundtrip.FragProofs.

(* write = write_all(to_bytes); fixed length 8 (no write_to_slice) *)
Theorem C08_Frag_ser_agree : forall h out,
  frag_write out h = out ++ frag_to_bytes h /\ len (frag_to_bytes h) = frag_header_len h.
Proof. exact frag_ser_agree. Qed.
Print Assumptions C08_Frag_ser_agree.

Theorem C08_Frag_dec_enc : forall h rest, wf_frag h = true ->
  frag_from_slice (frag_to_bytes h ++ rest) = Ok (h, rest) /\ frag_read (frag_to_bytes h ++ rest) = Ok (h, rest).
Proof. exact frag_dec_enc. Qed.
Print Assumptions C08_Frag_dec_enc.

(* reserved: byte 1 and bits 1-2 of byte 3 *)
Theorem C08_Frag_enc_dec : forall bs h rest, bytes_ok bs -> frag_from_slice bs = Ok (h, rest) ->
  wf_frag h = true /\ bs = take 8 bs ++ rest
  /\ agree frag_keep_mask (frag_to_bytes h) (take 8 bs)
  /\ frag_from_slice (frag_to_bytes h) = Ok (h, []).
Proof. exact frag_enc_dec. Qed.
Print Assumptions C08_Frag_enc_dec.

Theorem C08_Frag_spec : forall h, wf_frag h = true ->
  frag_to_bytes h = frag_layout (fr_next_header h) (fr_fragment_offset h) (fr_more_fragments h) (fr_identification h).
Proof. exact frag_spec. Qed.
Print Assumptions C08_Frag_spec.

Definition ex_max : Ipv6FragmentHeader :=
  {| fr_next_header := 255; fr_fragment_offset := 8191; fr_more_fragments := true;
     fr_identification := 4294967295 |}.
Example C08_Frag_ex_wf : wf_frag ex_max = true. Proof. vm_compute. reflexivity. Qed.
Example C08_Frag_ex_bytes : frag_to_bytes ex_max = [255; 0; 255; 249; 255; 255; 255; 255].
Proof. vm_compute. reflexivity. Qed.
Example C08_Frag_ex_dec : frag_from_slice [6; 170; 0; 15; 0; 0; 0; 1; 7] =
  Ok ({| fr_next_header := 6; fr_fragment_offset := 1; fr_more_fragments := true; fr_identification := 1 |}, [7]).
Proof. vm_compute. reflexivity. Qed.
End FRAG.

(* ---- link/net types ---- *)
(* the lemmas are in Roundtrip/<Type>Proofs.v; the test vectors for these types (one module per
   type, e.g. MACSEC.C08_Macsec_ex_bytes) are in Roundtrip/PropsLinkNet.v, exported from here *)
From EP Require Export Roundtrip.PropsLinkNet.
Module LINKNET.
Import Roundtrip.Macsec.
(* to_bytes (ArrayVec + set_len never undefined) and write agree, header_len many
   bytes; for EVERY value, well-formed or not.  MacsecHeader has no write_to_slice. *)
Theorem C08_Macsec_ser_agree : forall h out,
  exists e, mac_to_bytes h = Some e /\ mac_write out h = Some (out ++ e) /\ len e = mac_header_len h.
Proof. exact MacsecProofs.mac_ser_agree. Qed.
Print Assumptions C08_Macsec_ser_agree.
(* every well-formed value (all four ptypes, with/without SCI, all an/short_len/
   packet_nr/sci/ether type values; wf_mac EXCLUDES ptype = Unmodified(_) with
   short_len = 1, see C08_Macsec_excluded_rejected) followed by any bytes `rest`:
   from_slice returns the value (it returns no remainder: the caller skips
   header_len bytes, which leaves exactly `rest`), read returns value and `rest` *)
Theorem C08_Macsec_dec_enc : forall h rest, wf_mac h = true ->
  exists e, mac_to_bytes h = Some e /\ len e = mac_header_len h
    /\ mac_from_slice (e ++ rest) = Ok h /\ drop (mac_header_len h) (e ++ rest) = rest
    /\ mac_read (e ++ rest) = Ok (h, rest).
Proof. exact MacsecProofs.mac_dec_enc. Qed.
Print Assumptions C08_Macsec_dec_enc.
(* the values excluded by wf_mac although every field is in the range of its Rust
   type (ptype Unmodified and short_len 1): to_bytes encodes them, both decoders
   answer InvalidUnmodifiedShortLen -- such a value does NOT survive the round trip *)
Theorem C08_Macsec_excluded_rejected : forall h rest, mac_in_range h = true -> wf_mac h = false ->
  exists e, mac_to_bytes h = Some e /\ mac_from_slice (e ++ rest) = Err (EContent 1)
            /\ mac_read (e ++ rest) = Err (EContent 1).
Proof. exact MacsecProofs.mac_excluded_rejected. Qed.
Print Assumptions C08_Macsec_excluded_rejected.
(* every accepted byte string: the value is well-formed, re-encoding reproduces the
   consumed bytes outside the two reserved top bits of the short-length octet,
   decoding the re-encoded bytes (followed by the unconsumed input) gives the value again *)
Theorem C08_Macsec_enc_dec : forall bs h, bytes_ok bs -> mac_from_slice bs = Ok h ->
  wf_mac h = true /\ mac_header_len h <= len bs
  /\ exists e, mac_to_bytes h = Some e
       /\ agree (mac_keep_mask (mac_header_len h)) e (take (mac_header_len h) bs)
       /\ mac_from_slice (e ++ drop (mac_header_len h) bs) = Ok h.
Proof. exact MacsecProofs.mac_enc_dec. Qed.
Print Assumptions C08_Macsec_enc_dec.
(* IEEE 802.1AE SecTAG layout (+ ether type of the user data iff E = C = 0) *)
Theorem C08_Macsec_spec : forall h, wf_mac h = true ->
  mac_to_bytes h = Some (SpecLinkNet.macsec_layout (mac_endstation_id h) (mac_sci_some (mac_sci h)) (mac_scb h)
    (mac_encrypted (mac_ptype h)) (mac_userdata_changed (mac_ptype h)) (mac_an h) (mac_short_len h)
    (mac_packet_nr h) (mac_sci h) (MacsecProofs.mac_et_opt (mac_ptype h))).
Proof. exact MacsecProofs.mac_spec. Qed.
Print Assumptions C08_Macsec_spec.

Import Roundtrip.Auth Roundtrip.AuthProofs.
(* to_bytes (ArrayVec<1028> + set_len) and write agree, header_len many bytes *)
Theorem C08_Auth_ser_agree : forall h out, wf_ah h = true ->
  exists e, ah_to_bytes h = Some e /\ ah_write out h = Some (out ++ e) /\ len e = ah_header_len h.
Proof. exact ah_ser_agree. Qed.
Print Assumptions C08_Auth_ser_agree.
(* every well-formed value (every ICV length 0,4,..,1016, arbitrary stale bytes in the
   buffer behind the ICV), followed by any bytes: from_slice and read return the value
   (buffer zeroed behind the ICV = what PartialEq ignores) and exactly `rest` *)
Theorem C08_Auth_dec_enc : forall h rest, wf_ah h = true ->
  exists e, ah_to_bytes h = Some e /\ ah_from_slice (e ++ rest) = Ok (ah_norm h, rest)
            /\ ah_read (e ++ rest) = Ok (ah_norm h, rest) /\ ah_eqb (ah_norm h) h = true.
Proof. exact ah_dec_enc. Qed.
Print Assumptions C08_Auth_dec_enc.
(* reserved: bytes 2-3 *)
Theorem C08_Auth_enc_dec : forall bs h rest, bytes_ok bs -> ah_from_slice bs = Ok (h, rest) ->
  wf_ah h = true /\ ah_norm h = h /\
  exists e, ah_to_bytes h = Some e /\ bs = take (ah_header_len h) bs ++ rest
            /\ agree (ah_keep_mask (ah_header_len h)) e (take (ah_header_len h) bs)
            /\ ah_from_slice e = Ok (h, []).
Proof. exact ah_enc_dec. Qed.
Print Assumptions C08_Auth_enc_dec.
(* RFC 4302 layout; payload len = header length in 32 bit words - 2 *)
Theorem C08_Auth_spec : forall h, wf_ah h = true ->
  ah_to_bytes h = Some (SpecLinkNet.ah_layout (ah_next_header h) (ah_spi h) (ah_sequence_number h) (ah_icv h)).
Proof. exact ah_spec. Qed.
Print Assumptions C08_Auth_spec.

Import Roundtrip.RawExt Roundtrip.RawExtProofs.
Theorem C08_RawExt_ser_agree : forall h out, wf_rx h = true ->
  exists e, rx_to_bytes h = Some e /\ rx_write out h = Some (out ++ e) /\ len e = rx_header_len h.
Proof. exact rx_ser_agree. Qed.
Print Assumptions C08_RawExt_ser_agree.
(* every payload length 6, 14, .., 2046, arbitrary stale bytes behind the payload *)
Theorem C08_RawExt_dec_enc : forall h rest, wf_rx h = true ->
  exists e, rx_to_bytes h = Some e /\ rx_from_slice (e ++ rest) = Ok (rx_norm h, rest)
            /\ rx_read (e ++ rest) = Ok (rx_norm h, rest) /\ rx_eqb (rx_norm h) h = true.
Proof. exact rx_dec_enc. Qed.
Print Assumptions C08_RawExt_dec_enc.
(* no reserved bits: the consumed bytes are reproduced exactly *)
Theorem C08_RawExt_enc_dec : forall bs h rest, bytes_ok bs -> rx_from_slice bs = Ok (h, rest) ->
  wf_rx h = true /\ rx_norm h = h /\
  exists e, rx_to_bytes h = Some e /\ bs = e ++ rest /\ len e = rx_header_len h
            /\ rx_from_slice e = Ok (h, []).
Proof. exact rx_enc_dec. Qed.
Print Assumptions C08_RawExt_enc_dec.
(* RFC 8200 generic extension header; hdr ext len = length in 8 octets - 1 *)
Theorem C08_RawExt_spec : forall h, wf_rx h = true ->
  rx_to_bytes h = Some (SpecLinkNet.rawext_layout (rx_next_header h) (rx_pl h)).
Proof. exact rx_spec. Qed.
Print Assumptions C08_RawExt_spec.

Import Roundtrip.Ipv6 Roundtrip.Ipv6Proofs.
(* write = write_all(to_bytes); 40 bytes *)
Theorem C08_Ipv6_ser_agree : forall h out, wf_ip6 h = true ->
  ip6_write out h = out ++ ip6_to_bytes h /\ len (ip6_to_bytes h) = ip6_header_len h.
Proof. exact ip6_ser_agree. Qed.
Print Assumptions C08_Ipv6_ser_agree.
Theorem C08_Ipv6_dec_enc : forall h rest, wf_ip6 h = true ->
  ip6_from_slice (ip6_to_bytes h ++ rest) = Ok (h, rest) /\ ip6_read (ip6_to_bytes h ++ rest) = Ok (h, rest).
Proof. exact ip6_dec_enc. Qed.
Print Assumptions C08_Ipv6_dec_enc.
(* no reserved bits (the version nibble is checked to be 6): exact reproduction *)
Theorem C08_Ipv6_enc_dec : forall bs h rest, bytes_ok bs -> ip6_from_slice bs = Ok (h, rest) ->
  wf_ip6 h = true /\ bs = ip6_to_bytes h ++ rest /\ len (ip6_to_bytes h) = 40
  /\ ip6_from_slice (ip6_to_bytes h) = Ok (h, []).
Proof. exact ip6_enc_dec. Qed.
Print Assumptions C08_Ipv6_enc_dec.
Theorem C08_Ipv6_spec : forall h, wf_ip6 h = true ->
  ip6_to_bytes h = SpecLinkNet.ipv6_layout (i6_traffic_class h) (i6_flow_label h) (i6_payload_length h)
                     (i6_next_header h) (i6_hop_limit h) (i6_source h) (i6_destination h).
Proof. exact ip6_spec. Qed.
Print Assumptions C08_Ipv6_spec.

Import Roundtrip.Eth Roundtrip.EthProofs.
(* to_bytes = write = write_to_slice (any slice of >= 14 bytes; the bytes behind the header are
   untouched and returned as the rest; shorter slices are refused); 14 bytes *)
Theorem C08_Eth_ser_agree : forall h out slice, wf_eth h = true ->
  eth_write out h = out ++ eth_to_bytes h /\ len (eth_to_bytes h) = eth_header_len h
  /\ (14 <= len slice -> eth_write_to_slice slice h = Ok (eth_to_bytes h ++ drop 14 slice, drop 14 slice))
  /\ (len slice < 14 -> eth_write_to_slice slice h = Err ELen).
Proof. exact eth_ser_agree. Qed.
Print Assumptions C08_Eth_ser_agree.
Theorem C08_Eth_dec_enc : forall h rest, wf_eth h = true ->
  eth_from_slice (eth_to_bytes h ++ rest) = Ok (h, rest) /\ eth_read (eth_to_bytes h ++ rest) = Ok (h, rest)
  /\ eth_from_bytes (eth_to_bytes h) = Ok h.
Proof. exact eth_dec_enc. Qed.
Print Assumptions C08_Eth_dec_enc.
Theorem C08_Eth_enc_dec : forall bs h rest, bytes_ok bs -> eth_from_slice bs = Ok (h, rest) ->
  wf_eth h = true /\ bs = eth_to_bytes h ++ rest /\ len (eth_to_bytes h) = 14
  /\ eth_from_slice (eth_to_bytes h) = Ok (h, []).
Proof. exact eth_enc_dec. Qed.
Print Assumptions C08_Eth_enc_dec.
Theorem C08_Eth_spec : forall h,
  eth_to_bytes h = SpecLinkNet.eth_layout (eth_destination h) (eth_source h) (eth_ether_type h).
Proof. exact eth_spec. Qed.
Print Assumptions C08_Eth_spec.

Import Roundtrip.Vlan Roundtrip.VlanProofs.
Theorem C08_Vlan_ser_agree : forall h out,
  vl_write out h = out ++ vl_to_bytes h /\ len (vl_to_bytes h) = vl_header_len h.
Proof. exact vl_ser_agree. Qed.
Print Assumptions C08_Vlan_ser_agree.
Theorem C08_Vlan_dec_enc : forall h rest, wf_vl h = true ->
  vl_from_slice (vl_to_bytes h ++ rest) = Ok (h, rest) /\ vl_read (vl_to_bytes h ++ rest) = Ok (h, rest)
  /\ vl_from_bytes (vl_to_bytes h) = Ok h.
Proof. exact vl_dec_enc. Qed.
Print Assumptions C08_Vlan_dec_enc.
Theorem C08_Vlan_enc_dec : forall bs h rest, bytes_ok bs -> vl_from_slice bs = Ok (h, rest) ->
  wf_vl h = true /\ bs = vl_to_bytes h ++ rest /\ len (vl_to_bytes h) = 4
  /\ vl_from_slice (vl_to_bytes h) = Ok (h, []).
Proof. exact vl_enc_dec. Qed.
Print Assumptions C08_Vlan_enc_dec.
(* IEEE 802.1Q TCI: PCP * 2^13 + DEI * 2^12 + VID *)
Theorem C08_Vlan_spec : forall h, wf_vl h = true ->
  vl_to_bytes h = SpecLinkNet.vlan_layout (vl_pcp h) (vl_drop_eligible_indicator h) (vl_vlan_id h) (vl_ether_type h).
Proof. exact vl_spec. Qed.
Print Assumptions C08_Vlan_spec.

Import Roundtrip.Sll Roundtrip.SllProofs.
Theorem C08_Sll_ser_agree : forall h out slice, wf_sll h = true ->
  sll_write out h = out ++ sll_to_bytes h /\ len (sll_to_bytes h) = sll_header_len h
  /\ (16 <= len slice -> sll_write_to_slice slice h = Ok (sll_to_bytes h ++ drop 16 slice, drop 16 slice))
  /\ (len slice < 16 -> sll_write_to_slice slice h = Err ELen).
Proof. exact sll_ser_agree. Qed.
Print Assumptions C08_Sll_ser_agree.
(* wf_sll = field ranges (packet type <= 7) + the protocol type variant belongs to the ARP hardware
   id, which is one of the five supported ones; LinuxNonstandardEtherType holds one of its constants *)
Theorem C08_Sll_dec_enc : forall h rest, wf_sll h = true ->
  sll_from_slice (sll_to_bytes h ++ rest) = Ok (h, rest) /\ sll_read (sll_to_bytes h ++ rest) = Ok (h, rest)
  /\ sll_from_bytes (sll_to_bytes h) = Ok h.
Proof. exact sll_dec_enc. Qed.
Print Assumptions C08_Sll_dec_enc.
Theorem C08_Sll_enc_dec : forall bs h rest, bytes_ok bs -> sll_from_slice bs = Ok (h, rest) ->
  wf_sll h = true /\ bs = sll_to_bytes h ++ rest /\ len (sll_to_bytes h) = 16
  /\ sll_from_slice (sll_to_bytes h) = Ok (h, []).
Proof. exact sll_enc_dec. Qed.
Print Assumptions C08_Sll_enc_dec.
(* values in range but with a protocol type variant that does not belong to the hardware id do
   NOT survive: the decoder rejects them or returns a different value *)
Theorem C08_Sll_inconsistent_not_roundtrip : forall h rest, sll_in_range h = true -> sll_consistent h = false ->
  forall h' rest', sll_from_slice (sll_to_bytes h ++ rest) = Ok (h', rest') -> h' <> h.
Proof. exact sll_inconsistent_not_roundtrip. Qed.
Print Assumptions C08_Sll_inconsistent_not_roundtrip.
Theorem C08_Sll_spec : forall h, sll_to_bytes h =
  SpecLinkNet.sll_layout (sll_packet_type h) (sll_arp_hrd_type h) (sll_sender_address_valid_length h)
             (sll_sender_address h) (sll_protocol_u16 (sll_protocol_type h)).
Proof. exact sll_spec. Qed.
Print Assumptions C08_Sll_spec.

Import Roundtrip.Arp Roundtrip.ArpProofs.
Theorem C08_Arp_ser_agree : forall h out, wf_arp h = true ->
  exists e, arp_to_bytes h = Some e /\ arp_write out h = Some (out ++ e) /\ len e = arp_packet_len h.
Proof. exact arp_ser_agree. Qed.
Print Assumptions C08_Arp_ser_agree.
(* every well-formed packet (all address sizes 0..255, stale initialised bytes behind the
   addresses after set_hw_addrs/set_protocol_addrs), any trailing bytes; from_slice returns no
   remainder: skipping packet_len bytes leaves `rest` *)
Theorem C08_Arp_dec_enc : forall h rest, wf_arp h = true ->
  exists e, arp_to_bytes h = Some e /\ len e = arp_packet_len h
    /\ arp_from_slice (e ++ rest) = Ok (arp_norm h) /\ drop (arp_packet_len h) (e ++ rest) = rest
    /\ arp_read (e ++ rest) = Ok (arp_norm h, rest) /\ arp_eqb (arp_norm h) h = true.
Proof. exact arp_dec_enc. Qed.
Print Assumptions C08_Arp_dec_enc.
Theorem C08_Arp_enc_dec : forall bs h, bytes_ok bs -> arp_from_slice bs = Ok h ->
  wf_arp h = true /\ arp_norm h = h /\ arp_packet_len h <= len bs
  /\ exists e, arp_to_bytes h = Some e /\ e = take (arp_packet_len h) bs
       /\ arp_from_slice (e ++ drop (arp_packet_len h) bs) = Ok h.
Proof. exact arp_enc_dec. Qed.
Print Assumptions C08_Arp_enc_dec.
Theorem C08_Arp_spec : forall h, wf_arp h = true ->
  arp_to_bytes h = Some (SpecLinkNet.arp_layout (arp_hw_addr_type h) (arp_proto_addr_type h) (arp_operation h)
                                    (arp_sh h) (arp_sp h) (arp_th h) (arp_tp h)).
Proof. exact arp_spec. Qed.
Print Assumptions C08_Arp_spec.
(* the Ethernet/IPv4 view *)
Theorem C08_ArpEthIpv4_ser_agree : forall v, wf_ae v = true ->
  exists p, ae_to_arp_packet v = Some p /\ wf_arp p = true /\ arp_to_bytes p = Some (ae_to_bytes v)
            /\ len (ae_to_bytes v) = 28 /\ arp_try_eth_ipv4 p = Ok v.
Proof. exact ae_ser_agree. Qed.
Print Assumptions C08_ArpEthIpv4_ser_agree.
Theorem C08_ArpEthIpv4_dec_enc : forall v rest, wf_ae v = true ->
  exists p, arp_from_slice (ae_to_bytes v ++ rest) = Ok p /\ arp_try_eth_ipv4 p = Ok v
            /\ drop 28 (ae_to_bytes v ++ rest) = rest.
Proof. exact ae_dec_enc. Qed.
Print Assumptions C08_ArpEthIpv4_dec_enc.
Theorem C08_ArpEthIpv4_enc_dec : forall bs p v, bytes_ok bs -> arp_from_slice bs = Ok p ->
  arp_try_eth_ipv4 p = Ok v -> wf_ae v = true /\ 28 <= len bs /\ ae_to_bytes v = take 28 bs.
Proof. exact ae_enc_dec. Qed.
Print Assumptions C08_ArpEthIpv4_enc_dec.

Import Roundtrip.Exts4 Roundtrip.Exts4Proofs.
(* the only serialiser is write(start_ip_number); `x4_linked`: the authentication header is present
   exactly when the start number announces it (set_next_headers establishes this, property C12) *)
Theorem C08_Exts4_ser_agree : forall e out start, wf_x4 e = true -> x4_linked start e = true ->
  exists b, x4_write out e start = Ok (out ++ b) /\ len b = x4_header_len e
            /\ match x4_auth e with Some h => ah_to_bytes h = Some b | None => b = [] end.
Proof. exact x4_ser_agree. Qed.
Print Assumptions C08_Exts4_ser_agree.
Theorem C08_Exts4_dec_enc : forall e start rest, wf_x4 e = true -> x4_linked start e = true ->
  exists b, x4_write [] e start = Ok b
    /\ x4_from_slice start (b ++ rest) = Ok (x4_norm e, x4_final start e, rest)
    /\ x4_read (b ++ rest) start = Ok (x4_norm e, x4_final start e, rest)
    /\ x4_eqb (x4_norm e) e = true.
Proof. exact x4_dec_enc. Qed.
Print Assumptions C08_Exts4_dec_enc.
(* reserved: bytes 2-3 of the authentication header *)
Theorem C08_Exts4_enc_dec : forall start bs e n rest, bytes_ok bs -> x4_from_slice start bs = Ok (e, n, rest) ->
  wf_x4 e = true /\ x4_norm e = e /\ x4_linked start e = true /\ n = x4_final start e
  /\ exists b, x4_write [] e start = Ok b /\ bs = take (x4_header_len e) bs ++ rest
       /\ agree (x4_keep_mask e) b (take (x4_header_len e) bs)
       /\ x4_from_slice start (b ++ rest) = Ok (e, n, rest).
Proof. exact x4_enc_dec. Qed.
Print Assumptions C08_Exts4_enc_dec.

(* Ipv6Extensions, stated on the model of property C12 (ExtChain/Model.v: Exts6, write, from_slice,
   next_header, header_len), which is tied to the crate by C12's own correspondence run; C12 proves the
   chain bookkeeping (C12_write_iff_walk, C12_write_len, C12_decode_write for an empty remainder).
   Kept last: the imports shadow Ok/Err. *)
Module X6.
Import ExtChain.Spec ExtChain.Model ExtChain.Proofs Roundtrip.Exts6Proofs.
(* the only serialiser is write(first_header); decode(write e ++ rest) = (e, final number, rest) for
   every valid struct whose chain is consistent (write succeeds, equivalently next_header succeeds)
   and ends on a non-extension number; len = header_len.
   _partial: says nothing of Ipv6Extensions::read; AUDIT1.C08_Exts6_dec_enc below adds the reader. *)
Theorem C08_Exts6_dec_enc_partial : forall e first bs n rest, exts6_valid e = true ->
  write e first = (bs, Ok tt) -> next_header e first = Ok n -> is_ext_number n = false ->
  len bs = header_len e /\ from_slice first (bs ++ rest) = Ok (e, n, rest).
Proof. exact exts6_dec_enc. Qed.
Print Assumptions C08_Exts6_dec_enc_partial.
(* every accepted byte string (including chains on which the decoder stops early because a header
   kind repeats, n then is an extension number): the struct is valid, write succeeds with the same
   final number, the written bytes equal the consumed bytes except the reserved bits of fragment
   (byte 1, bits 1-2 of byte 3) and authentication headers (bytes 2-3) [hdr_eq], and decode again
   with any remainder gives the same struct *)
Theorem C08_Exts6_enc_dec : forall first bs e n r, bytes_ok bs -> from_slice first bs = Ok (e, n, r) ->
  exts6_valid e = true /\
  exists bs' cons, write e first = (bs', Ok tt) /\ next_header e first = Ok n
    /\ bs = cons ++ r /\ hdr_eq bs' cons /\ len bs' = header_len e
    /\ forall t, from_slice first (bs' ++ t) = Ok (e, n, t).
Proof. exact exts6_enc_dec. Qed.
Print Assumptions C08_Exts6_enc_dec.
(* the decoder never looks behind the headers it consumes *)
Theorem C08_Exts6_frame : forall first s t e n r,
  from_slice first s = Ok (e, n, r) -> from_slice first (s ++ t) = Ok (e, n, r ++ t).
Proof. exact from_slice_frame. Qed.
Print Assumptions C08_Exts6_frame.
End X6.
End LINKNET.

(* ---- transport/control types ---- *)
(* test vectors (modules UDP, ICMP4, ICMP6, IGMP, GREC, PREFIX): Roundtrip/PropsTransport.v,
   exported from here *)
From EP Require Export Roundtrip.PropsTransport.
From EP Require CtlMsg.Spec Roundtrip.Common Roundtrip.Grec Roundtrip.GrecProofs Roundtrip.Icmp4 Roundtrip.Icmp4Proofs Roundtrip.Icmp6 Roundtrip.Icmp6Proofs Roundtrip.Igmp Roundtrip.IgmpProofs Roundtrip.Prefix Roundtrip.PrefixProofs Roundtrip.Udp Roundtrip.UdpProofs.
Module TR_UDP.
Import Roundtrip.Udp Roundtrip.UdpProofs.
(* write = write_all(to_bytes); fixed length 8 = header_len (no write_to_slice) *)
Theorem C08_Udp_ser_agree : forall h out,
  udp_write out h = out ++ udp_to_bytes h /\ len (udp_to_bytes h) = udp_header_len h.
Proof. exact udp_ser_agree. Qed.
Print Assumptions C08_Udp_ser_agree.
(* all four u16 fields, any trailing bytes; from_slice and read *)
Theorem C08_Udp_dec_enc : forall h rest, wf_udp h = true ->
  udp_from_slice (udp_to_bytes h ++ rest) = Ok (h, rest) /\ udp_read (udp_to_bytes h ++ rest) = Ok (h, rest).
Proof. exact udp_dec_enc. Qed.
Print Assumptions C08_Udp_dec_enc.
(* no reserved bits: re-encoding reproduces the consumed 8 bytes exactly *)
Theorem C08_Udp_enc_dec : forall bs h rest, bytes_ok bs -> udp_from_slice bs = Ok (h, rest) ->
  wf_udp h = true /\ bs = take 8 bs ++ rest
  /\ udp_to_bytes h = take 8 bs
  /\ agree udp_keep_mask (udp_to_bytes h) (take 8 bs)
  /\ udp_from_slice (udp_to_bytes h) = Ok (h, [])
  /\ udp_read bs = Ok (h, rest).
Proof. exact udp_enc_dec. Qed.
Print Assumptions C08_Udp_enc_dec.
Theorem C08_Udp_spec : forall h, wf_udp h = true ->
  udp_to_bytes h = udp_layout (udp_source_port h) (udp_destination_port h) (udp_length h) (udp_checksum h).
Proof. exact udp_spec. Qed.
Print Assumptions C08_Udp_spec.
End TR_UDP.
Module TR_ICMP4.
Import CtlMsg.Spec Roundtrip.Icmp4 Roundtrip.Icmp4Proofs.
Import Roundtrip.Common.
(* to_bytes and write agree, header_len many bytes (no write_to_slice) *)
Theorem C08_Icmp4_ser_agree : forall h out,
  exists e, icmp4_to_bytes h = Some e /\ icmp4_write out h = Some (out ++ e) /\ len e = icmp4_header_len h.
Proof. exact icmp4_ser_agree. Qed.
Print Assumptions C08_Icmp4_ser_agree.
(* every well-formed value (wf_icmp4: fields in range; the raw variant Unknown only for
   (type, code) pairs without typed variant): read returns the value and any remainder;
   from_slice does so for the 8-byte messages and, for timestamp / timestamp reply, with
   the empty remainder (it insists on exactly 20 bytes) *)
Theorem C08_Icmp4_dec_enc : forall h, wf_icmp4 h = true ->
  exists e, icmp4_to_bytes h = Some e /\ len e = icmp4_header_len h /\ bytes_ok e /\
    (forall rest, icmp4_read (e ++ rest) = Ok (h, rest)) /\
    (forall rest, icmp4_header_len h = 8 \/ rest = [] -> icmp4_from_slice (e ++ rest) = Ok (h, rest)).
Proof. exact icmp4_dec_enc. Qed.
Print Assumptions C08_Icmp4_dec_enc.
(* every accepted byte string; normalised: the unused words of destination unreachable
   (type 3, code <= 15: bytes 4-7, code 4 keeps the next-hop MTU 6-7), time exceeded
   (11, code <= 1: bytes 4-7), parameter problem (12, code <= 2: bytes 5-7, byte 4 unless code 0) *)
Theorem C08_Icmp4_enc_dec : forall bs h rest, bytes_ok bs -> icmp4_from_slice bs = Ok (h, rest) ->
  wf_icmp4 h = true /\ bs = take (icmp4_header_len h) bs ++ rest /\
  exists e t c, icmp4_to_bytes h = Some e /\ rd bs 0 = Some t /\ rd bs 1 = Some c /\
    agree (icmp4_keep_mask t c (icmp4_header_len h)) e (take (icmp4_header_len h) bs) /\
    icmp4_from_slice e = Ok (h, []) /\ icmp4_read bs = Ok (h, rest).
Proof. exact icmp4_enc_dec. Qed.
Print Assumptions C08_Icmp4_enc_dec.
(* the RFC 792 table decoder of CtlMsg/Spec.v reads every well-formed value back *)
Theorem C08_Icmp4_spec : forall h, wf_icmp4 h = true ->
  exists e, icmp4_to_bytes h = Some e /\
    icmp4 e = CtlMsg.Spec.Ok (icmp4_type h, icmp4_header_len h, []).
Proof. exact icmp4_spec. Qed.
Print Assumptions C08_Icmp4_spec.
End TR_ICMP4.
Module TR_ICMP6.
Import CtlMsg.Spec Roundtrip.Icmp6 Roundtrip.Icmp6Proofs.
Import Roundtrip.Common.
Theorem C08_Icmp6_ser_agree : forall h out,
  exists e, icmp6_to_bytes h = Some e /\ icmp6_write out h = Some (out ++ e) /\ len e = icmp6_header_len h.
Proof. exact icmp6_ser_agree. Qed.
Print Assumptions C08_Icmp6_ser_agree.
(* every well-formed value (raw variant only for (type, code) without typed variant); read:
   any remainder; from_slice: any remainder as long as the slice stays within u32::MAX bytes
   (Icmpv6Slice::from_slice rejects longer slices) *)
Theorem C08_Icmp6_dec_enc : forall h, wf_icmp6 h = true ->
  exists e, icmp6_to_bytes h = Some e /\ len e = icmp6_header_len h /\ bytes_ok e /\
    (forall rest, icmp6_read (e ++ rest) = Ok (h, rest)) /\
    (forall rest, 8 + len rest <= 4294967295 -> icmp6_from_slice (e ++ rest) = Ok (h, rest)).
Proof. exact icmp6_dec_enc. Qed.
Print Assumptions C08_Icmp6_dec_enc.
(* normalised: bytes 4-7 of destination unreachable (1, code <= 6), time exceeded (3, code <= 1),
   router solicitation / neighbor solicitation / redirect (133 / 135 / 137, code 0);
   router advertisement (134, 0) keeps 0xC0 of byte 5; neighbor advertisement (136, 0)
   keeps 0xE0 of byte 4 and zeroes bytes 5-7 *)
Theorem C08_Icmp6_enc_dec : forall bs h rest, bytes_ok bs -> icmp6_from_slice bs = Ok (h, rest) ->
  wf_icmp6 h = true /\ bs = take (icmp6_header_len h) bs ++ rest /\
  exists e t c, icmp6_to_bytes h = Some e /\ rd bs 0 = Some t /\ rd bs 1 = Some c /\
    agree (icmp6_keep_mask t c) e (take (icmp6_header_len h) bs) /\
    icmp6_from_slice e = Ok (h, []) /\ icmp6_read bs = Ok (h, rest).
Proof. exact icmp6_enc_dec. Qed.
Print Assumptions C08_Icmp6_enc_dec.
(* the RFC 4443 / 4861 table decoder of CtlMsg/Spec.v reads every well-formed value back *)
Theorem C08_Icmp6_spec : forall h, wf_icmp6 h = true ->
  exists e, icmp6_to_bytes h = Some e /\ icmp6 e = CtlMsg.Spec.Ok (icmp6_type h, []).
Proof. exact icmp6_spec. Qed.
Print Assumptions C08_Icmp6_spec.
End TR_ICMP6.
Module TR_IGMP.
Import CtlMsg.Spec Roundtrip.Igmp Roundtrip.IgmpProofs.
Import Roundtrip.Common.
(* IgmpHeader has a single serialiser (to_bytes): header_len many bytes *)
Theorem C08_Igmp_ser_agree : forall h,
  exists e, igmp_to_bytes h = Some e /\ len e = igmp_header_len h.
Proof. exact igmp_ser_agree. Qed.
Print Assumptions C08_Igmp_ser_agree.
(* every well-formed value and any remainder -- except the 8-byte membership query, which
   round-trips with the EMPTY remainder only: the query version is decided by the length
   of the slice (8: v1/v2, >= 12: v3), see IGMP.C08_Igmp_ex_query_trailing *)
Theorem C08_Igmp_dec_enc : forall h, wf_igmp h = true ->
  exists e, igmp_to_bytes h = Some e /\ len e = igmp_header_len h /\ bytes_ok e /\
    (forall rest, igmp_is_query8 (igmp_type h) = false \/ rest = [] -> igmp_from_slice (e ++ rest) = Ok (h, rest)).
Proof. exact igmp_dec_enc. Qed.
Print Assumptions C08_Igmp_dec_enc.
(* normalised: byte 1 of the v1 / v2 / v3 reports and of leave group (0x12, 0x16, 0x22, 0x17) *)
Theorem C08_Igmp_enc_dec : forall bs h rest, bytes_ok bs -> igmp_from_slice bs = Ok (h, rest) ->
  wf_igmp h = true /\ bs = take (igmp_header_len h) bs ++ rest /\
  exists e t, igmp_to_bytes h = Some e /\ rd bs 0 = Some t /\
    agree (igmp_keep_mask t (igmp_header_len h)) e (take (igmp_header_len h) bs) /\
    igmp_from_slice e = Ok (h, []).
Proof. exact igmp_enc_dec. Qed.
Print Assumptions C08_Igmp_enc_dec.
(* the RFC 2236 / 3376 decoder of CtlMsg/Spec.v reads every well-formed value back *)
Theorem C08_Igmp_spec : forall h, wf_igmp h = true ->
  exists e, igmp_to_bytes h = Some e /\
    igmp e = CtlMsg.Spec.Ok (igmp_type h, igmp_checksum h, igmp_header_len h, []).
Proof. exact igmp_spec. Qed.
Print Assumptions C08_Igmp_spec.
End TR_IGMP.
Module TR_GREC.
Import CtlMsg.Spec Roundtrip.Grec Roundtrip.GrecProofs.
Import Roundtrip.Common.
Theorem C08_Grec_ser_agree : forall g, len (grec_to_bytes g) = grec_len.
Proof. exact grec_ser_agree. Qed.
Print Assumptions C08_Grec_ser_agree.
Theorem C08_Grec_dec_enc : forall g rest, wf_grec g = true ->
  grec_from_slice (grec_to_bytes g ++ rest) = Ok (g, rest).
Proof. exact grec_dec_enc. Qed.
Print Assumptions C08_Grec_dec_enc.
Theorem C08_Grec_enc_dec : forall bs g rest, bytes_ok bs -> grec_from_slice bs = Ok (g, rest) ->
  wf_grec g = true /\ bs = take 8 bs ++ rest /\ grec_to_bytes g = take 8 bs
  /\ agree grec_keep_mask (grec_to_bytes g) (take 8 bs)
  /\ grec_from_slice (grec_to_bytes g) = Ok (g, []).
Proof. exact grec_enc_dec. Qed.
Print Assumptions C08_Grec_enc_dec.
Theorem C08_Grec_spec : forall g, wf_grec g = true -> group_record (grec_to_bytes g) = CtlMsg.Spec.Ok (g, []).
Proof. exact grec_spec. Qed.
Print Assumptions C08_Grec_spec.
End TR_GREC.
Module TR_PREFIX.
Import Roundtrip.Prefix Roundtrip.PrefixProofs.
Theorem C08_Prefix_ser_agree : forall h, wf_pi h = true -> exists e, pi_to_bytes h = Some e /\ len e = pi_len.
Proof. exact pi_ser_agree. Qed.
Print Assumptions C08_Prefix_ser_agree.
(* from_slice / from_bytes take exactly 32 bytes: no remainder; longer inputs are rejected *)
Theorem C08_Prefix_dec_enc : forall h, wf_pi h = true ->
  exists e, pi_to_bytes h = Some e /\ len e = pi_len /\ bytes_ok e /\
    pi_from_slice e = Ok h /\ pi_from_bytes e = Ok h /\
    (forall rest, rest <> [] -> pi_from_slice (e ++ rest) = Err ELen).
Proof. exact pi_dec_enc. Qed.
Print Assumptions C08_Prefix_dec_enc.
(* normalised: reserved1 (low 6 bits of byte 3) and reserved2 (bytes 12-15) *)
Theorem C08_Prefix_enc_dec : forall bs h, bytes_ok bs -> pi_from_slice bs = Ok h ->
  wf_pi h = true /\ len bs = pi_len /\
  exists e, pi_to_bytes h = Some e /\ agree pi_keep_mask e bs /\ pi_from_slice e = Ok h /\ pi_from_bytes bs = Ok h.
Proof. exact pi_enc_dec. Qed.
Print Assumptions C08_Prefix_enc_dec.
Theorem C08_Prefix_spec : forall h, wf_pi h = true ->
  pi_to_bytes h = Some (pi_layout (pi_prefix_length h) (pi_on_link h) (pi_autonomous h)
                          (pi_valid_lifetime h) (pi_preferred_lifetime h) (pi_prefix h)).
Proof. exact pi_spec. Qed.
Print Assumptions C08_Prefix_spec.
End TR_PREFIX.

(* ---- IpHeaders ---- *)
(* enum IpHeaders { Ipv4(Ipv4Header, Ipv4Extensions), Ipv6(Ipv6Header, Ipv6Extensions) }: model
   Roundtrip/IpHeaders.v, COMPOSED of the models above (Ipv4Header, Ipv6Header, IpAuthHeader /
   Ipv4Extensions) and of property C12's (ExtChain/Model.v: Ipv6Extensions; ExtChain/ReadModel.v:
   Ipv6Extensions::read_limited; IoFault/Model.v: LimitedReader).  Lemmas: Roundtrip/IpHeadersProofs.v.
   The chain bookkeeping itself (set_next_headers links in RFC order, write <=> walk for the
   extensions alone) is C12's (C12_write_iff_walk, C12_link_walks), cited through the lemmas. *)
From EP Require Roundtrip.Ipv6 Roundtrip.Auth Roundtrip.Exts4 Roundtrip.IpHeaders Roundtrip.IpHeadersProofs
  Roundtrip.IpHeadersBuild.
From EP Require ExtChain.Spec ExtChain.Model Roundtrip.Exts6Proofs.
Module IPHEADERS.
Import Checksum.Model Roundtrip.Ipv4 Roundtrip.Ipv6 Roundtrip.Auth Roundtrip.Exts4.
Import Roundtrip.IpHeaders Roundtrip.IpHeadersProofs.

(* For every well-formed value (iph_wf: parts in range; chain linked from the IP header's protocol /
   next_header field to a non-extension number -- IPv4: AH present <=> protocol = 51; length field covers
   the headers) and every endianness of the checksum code:
   * write succeeds and emits exactly header_len bytes;
   * from_slice AND the version-specific decoder, given those bytes followed by ANY payload of the
     announced length (iph_payload_fits: header_len + len payload = total_len resp. 40 + payload_length;
     IPv6 payload_length 0: everything up to the slice end) and ANY bytes t behind the announced packet,
     return the written value (iph_written: header checksum as recomputed by Ipv4Header::write, option /
     ICV buffers zero behind the visible part; IPv6: the value itself), the final protocol number, the
     fragmentation flag, the len source and exactly the payload (t is cut off);
   * read over a Cursor returns the same value and number and leaves the cursor behind the headers, whatever
     follows (IPv6: iph_read_room = the bytes the LimitedReader may be asked for are there, hypothesis
     of C12's read_limited theorems; nothing for IPv4). *)
Theorem C08_IpHeaders_dec_enc : forall en h, iph_wf h = true ->
  exists w, iph_write en h = (w, ExtChain.Model.Ok tt) /\ len w = iph_header_len h
    /\ (forall payload t, iph_payload_fits h payload t ->
          iph_from_slice (w ++ payload ++ t) = Ok (iph_written en h, iph_payload_desc h payload)
          /\ iph_from_version_slice h (w ++ payload ++ t) = Ok (iph_written en h, iph_payload_desc h payload))
    /\ (forall rest, bytes_ok rest -> iph_read_room h rest ->
          iph_read (w ++ rest) = Ok (iph_written en h, iph_final h, rest)).
Proof. exact iph_dec_enc. Qed.
Print Assumptions C08_IpHeaders_dec_enc.

(* the returned value is EQUAL to h (derive(PartialEq): Ipv4Options / IpAuthHeader compare the visible
   slices) exactly up to the IPv4 header checksum, which write recomputes: equal when the field was consistent *)
Theorem C08_IpHeaders_written_eq : forall en h, iph_wf h = true -> iph_checksum_ok en h = true ->
  iph_eq (iph_written en h) h.
Proof. exact iph_written_eq. Qed.
Print Assumptions C08_IpHeaders_written_eq.

(* write = header bytes ++ extension bytes, the IPv4 header with bytes 10-11 := computed checksum *)
Theorem C08_IpHeaders_ser_agree_v4 : forall en hd e, wf_ip4 hd = true -> wf_x4 e = true ->
  x4_linked (i4_protocol hd) e = true ->
  exists ck hb xb, ip4_calc_checksum en hd = Some ck /\ ck < 65536
    /\ ip4_to_bytes (ip4_set_checksum hd ck) = Some hb /\ len hb = ip4_header_len hd
    /\ x4_write [] e (i4_protocol hd) = Ok xb /\ len xb = x4_header_len e
    /\ iph_write en (IpV4 hd e) = (hb ++ xb, ExtChain.Model.Ok tt).
Proof. exact iph_write_v4. Qed.
Print Assumptions C08_IpHeaders_ser_agree_v4.
Theorem C08_IpHeaders_ser_agree_v6 : forall en hd e n, ExtChain.Model.exts6_valid e = true ->
  ExtChain.Model.next_header e (i6_next_header hd) = ExtChain.Model.Ok n ->
  exists xb, ExtChain.Model.write e (i6_next_header hd) = (xb, ExtChain.Model.Ok tt)
    /\ len xb = ExtChain.Model.header_len e /\ bytes_ok xb
    /\ iph_write en (IpV6 hd e) = (ip6_to_bytes hd ++ xb, ExtChain.Model.Ok tt).
Proof. exact iph_write_v6. Qed.
Print Assumptions C08_IpHeaders_ser_agree_v6.

(* write succeeds iff next_header() walks the chain, with the same error (on C12_write_iff_walk for the
   IPv6 extensions); a successful write emits header_len bytes.  Parts in range, nothing else assumed. *)
Theorem C08_IpHeaders_write_iff_walk : forall en h, iph_parts_wf h = true ->
  match iph_next_header h with
  | ExtChain.Model.Ok n => snd (iph_write en h) = ExtChain.Model.Ok tt /\ len (fst (iph_write en h)) = iph_header_len h
  | ExtChain.Model.Err x => snd (iph_write en h) = ExtChain.Model.Err x
  | ExtChain.Model.Panic | ExtChain.Model.OutOfFuel => False
  end.
Proof. exact iph_write_iff_walk. Qed.
Print Assumptions C08_IpHeaders_write_iff_walk.

(* every accepted byte string: the parts are in range, next_header() walks to the reported number, write
   succeeds with header_len = consumed bytes, bs = consumed ++ payload ++ (bytes behind the announced packet),
   the written bytes relate to the consumed ones by iph_reencodes = the normalisations already stated for the
   parts (IPv4: bit 7 of byte 6, bytes 10-11 := computed checksum, AH bytes 2-3; IPv6: header exact,
   extensions Exts6Proofs.hdr_eq = fragment byte 1 / bits 1-2 of byte 3, AH bytes 2-3), and decoding
   written ++ payload ++ t again gives the written value and the same payload description -- also for chains
   on which the decoder stopped in front of a repeated extension header. *)
Theorem C08_IpHeaders_enc_dec : forall en bs h p, bytes_ok bs -> iph_from_slice bs = Ok (h, p) ->
  iph_parts_wf h = true /\ iph_next_header h = ExtChain.Model.Ok (ipp_ip_number p)
  /\ exists w cons t, iph_write en h = (w, ExtChain.Model.Ok tt) /\ len w = iph_header_len h
      /\ bs = cons ++ ipp_payload p ++ t /\ len cons = iph_header_len h
      /\ iph_reencodes en h cons w
      /\ iph_from_slice (w ++ ipp_payload p ++ t) = Ok (iph_written en h, p).
Proof. exact iph_enc_dec. Qed.
Print Assumptions C08_IpHeaders_enc_dec.

(* the version-dispatching decoder IS the version-specific one (equal results, errors included) *)
Theorem C08_IpHeaders_dispatch : forall s b0, rd s 0 = Some b0 ->
  (shr b0 4 = 4 -> iph_from_slice s = iph_from_ipv4_slice s) /\
  (shr b0 4 = 6 -> iph_from_slice s = iph_from_ipv6_slice s) /\
  (shr b0 4 <> 4 -> shr b0 4 <> 6 -> iph_from_slice s = Err (C_UNSUPPORTED_VERSION (shr b0 4))).
Proof.
  exact (fun s b0 R => conj (iph_dispatch_v4 s b0 R) (conj (iph_dispatch_v6 s b0 R) (iph_dispatch_other s b0 R))).
Qed.
Print Assumptions C08_IpHeaders_dispatch.

(* ---- non-vacuity ---- *)
(* IPv4 (no options, stale checksum 0) + AH(next 17, ICV 01020304), total_len 40 *)
Definition ex_v4 : IpHeaders :=
  IpV4 {| i4_dscp := 0; i4_ecn := 0; i4_total_len := 40; i4_identification := 1; i4_dont_fragment := false;
          i4_more_fragments := false; i4_fragment_offset := 0; i4_time_to_live := 64; i4_protocol := 51;
          i4_header_checksum := 0; i4_source := [10; 0; 0; 1]; i4_destination := [10; 0; 0; 2];
          i4_options := {| i4o_len := 0; i4o_buf := zeros 40 |} |}
       {| x4_auth := Some {| ah_next_header := 17; ah_spi := 1; ah_sequence_number := 2; ah_raw_icv_len := 1;
                             ah_raw_icv_buffer := [1; 2; 3; 4] ++ zeros 1012 |} |}.
Definition ex_v4_bytes : bytes :=
  [69;0;0;40; 0;1;0;0; 64;51;102;160; 10;0;0;1; 10;0;0;2] ++ [17;2;0;0; 0;0;0;1; 0;0;0;2; 1;2;3;4].
Example C08_IpHeaders_ex_v4 :
  iph_wf ex_v4 = true /\ iph_checksum_ok LE ex_v4 = false
  /\ iph_write LE ex_v4 = (ex_v4_bytes, ExtChain.Model.Ok tt) /\ iph_header_len ex_v4 = 36
  /\ iph_payload_fits ex_v4 [9; 9; 9; 9] [7]
  /\ match iph_from_slice (ex_v4_bytes ++ [9; 9; 9; 9] ++ [7]), iph_read (ex_v4_bytes ++ [9; 9; 9; 9] ++ [7]) with
     | Ok (h, p), Ok (h', n, r) => h = iph_written LE ex_v4 /\ h' = h /\ ipp_ip_number p = 17 /\ n = 17
                                   /\ ipp_payload p = [9; 9; 9; 9] /\ r = [9; 9; 9; 9; 7]
     | _, _ => False
     end.
Proof. vm_compute. repeat split; reflexivity. Qed.

(* IPv6, payload_length 18: hop-by-hop (8 bytes), fragment (offset 1, M), UDP *)
Definition ex_v6 : IpHeaders :=
  IpV6 {| i6_traffic_class := 0; i6_flow_label := 0; i6_payload_length := 18; i6_next_header := 0;
          i6_hop_limit := 64; i6_source := repeat 1 16; i6_destination := repeat 2 16 |}
       (ExtChain.Model.mkExts6 (Some (ExtChain.Model.mkRaw 44 0 [1; 2; 3; 4; 5; 6])) None None
          (Some (ExtChain.Model.mkFrag 17 1 true 1)) None).
Definition ex_v6_bytes : bytes :=
  [96;0;0;0; 0;18; 0; 64] ++ repeat 1 16 ++ repeat 2 16 ++ [44;0;1;2;3;4;5;6] ++ [17;0;0;9;0;0;0;1].
Example C08_IpHeaders_ex_v6 :
  iph_wf ex_v6 = true /\ iph_write LE ex_v6 = (ex_v6_bytes, ExtChain.Model.Ok tt) /\ iph_header_len ex_v6 = 56
  /\ iph_payload_fits ex_v6 [9; 9] [7; 7] /\ iph_read_room ex_v6 [9; 9; 7; 7]
  /\ iph_from_slice (ex_v6_bytes ++ [9; 9] ++ [7; 7])
     = Ok (ex_v6, {| ipp_ip_number := 17; ipp_fragmented := true; ipp_len_source := LsIpv6HeaderPayloadLen;
                     ipp_payload := [9; 9] |})
  /\ iph_read (ex_v6_bytes ++ [9; 9] ++ [7; 7]) = Ok (ex_v6, 17, [9; 9; 7; 7]).
Proof. vm_compute. repeat split; try reflexivity. discriminate. Qed.

(* accepted bytes with reserved bits set (IPv4 bit 7 of byte 6, wrong checksum; fragment header reserved
   byte / bits): the hypotheses of C08_IpHeaders_enc_dec hold, write clears them *)
Example C08_IpHeaders_ex_enc_dec :
  match iph_from_slice ([69;0;0;24; 0;1;128;0; 64;17;1;2; 10;0;0;1; 10;0;0;2] ++ [9;9;9;9]) with
  | Ok (h, p) => iph_write LE h = ([69;0;0;24; 0;1;0;0; 64;17;102;210; 10;0;0;1; 10;0;0;2], ExtChain.Model.Ok tt)
                 /\ ipp_payload p = [9;9;9;9]
  | _ => False
  end /\
  match iph_from_slice ([96;0;0;0; 0;10; 44; 64] ++ repeat 1 16 ++ repeat 2 16 ++ [17;170;0;15;0;0;0;1] ++ [9;9]) with
  | Ok (h, p) => fst (iph_write LE h)
                 = [96;0;0;0; 0;10; 44; 64] ++ repeat 1 16 ++ repeat 2 16 ++ [17;0;0;9;0;0;0;1]
                 /\ ipp_fragmented p = true
  | _ => False
  end.
Proof. vm_compute. repeat split; reflexivity. Qed.

(* write refuses chains that do not walk: routing header nobody announces; AH with protocol 6.  The IP
   header has gone out before the error (40 / 20 bytes in the Vec). *)
Example C08_IpHeaders_ex_not_linked :
  let h6 := IpV6 {| i6_traffic_class := 0; i6_flow_label := 0; i6_payload_length := 8; i6_next_header := 17;
                    i6_hop_limit := 64; i6_source := repeat 1 16; i6_destination := repeat 2 16 |}
                 (ExtChain.Model.mkExts6 None None
                    (Some (ExtChain.Model.mkRouting (ExtChain.Model.mkRaw 17 0 [1; 2; 3; 4; 5; 6]) None)) None None) in
  iph_parts_wf h6 = true /\ iph_wf h6 = false
  /\ iph_next_header h6 = ExtChain.Model.Err (ExtChain.Model.Ipv6Exts (ExtChain.Model.ExtNotReferenced 43))
  /\ snd (iph_write LE h6) = ExtChain.Model.Err (ExtChain.Model.Ipv6Exts (ExtChain.Model.ExtNotReferenced 43))
  /\ len (fst (iph_write LE h6)) = 40.
Proof. vm_compute. repeat split; reflexivity. Qed.

(* F15 (known finding of C06) seen from C08: IPv6 payload_length 0 with an extension header.  from_slice reads
   0 as "up to the end of the slice" and round-trips the value; read hands the 0 to the LimitedReader and fails:
   such a value is outside iph_wf (header_len of the extensions > payload_length), read is NOT claimed for it *)
Definition ex_f15 : IpHeaders :=
  IpV6 {| i6_traffic_class := 0; i6_flow_label := 0; i6_payload_length := 0; i6_next_header := 60;
          i6_hop_limit := 64; i6_source := repeat 0 16; i6_destination := repeat 0 16 |}
       (ExtChain.Model.mkExts6 None (Some (ExtChain.Model.mkRaw 17 0 [0; 0; 0; 0; 0; 0])) None None None).
Example C08_IpHeaders_read_zero_payload_len_refuted :
  iph_parts_wf ex_f15 = true /\ iph_wf ex_f15 = false /\
  exists w, iph_write LE ex_f15 = (w, ExtChain.Model.Ok tt)
    /\ iph_from_slice (w ++ [9; 9]) = Ok (ex_f15, {| ipp_ip_number := 17; ipp_fragmented := false;
                                                     ipp_len_source := LsSlice; ipp_payload := [9; 9] |})
    /\ iph_read (w ++ [9; 9]) = Err ELen.
Proof. split; [reflexivity|]. split; [reflexivity|]. eexists. split; [vm_compute; reflexivity|]. vm_compute. repeat split. Qed.
(* iph_wf is what the crate's own setters establish: for EVERY value with parts in range (any links, any
   length field), set_next_headers(n) -- n not an extension header of the version: iph_last_ok -- followed
   by a successful set_payload_len(k) gives a well-formed value that walks to n and announces header_len + k
   bytes (IPv6 without extensions and k = 0: payload_length 0).  Linking: C12 (C12_link_walks). *)
Theorem C08_IpHeaders_built_wf : forall h n k h', iph_parts_wf h = true ->
  Roundtrip.IpHeadersBuild.iph_last_ok h n = true ->
  iph_set_payload_len (fst (iph_set_next_headers h n)) k = Some h' ->
  iph_wf h' = true /\ iph_final h' = n /\ iph_header_len h' = iph_header_len h
  /\ iph_announced h' = (match h' with
                         | IpV6 _ _ => if iph_header_len h' - 40 + k =? 0 then None else Some (iph_header_len h' + k)
                         | IpV4 _ _ => Some (iph_header_len h' + k)
                         end).
Proof. exact Roundtrip.IpHeadersBuild.iph_built_wf. Qed.
Print Assumptions C08_IpHeaders_built_wf.

(* the unlinked value of C08_IpHeaders_ex_not_linked becomes well-formed *)
Example C08_IpHeaders_ex_built :
  let h6 := IpV6 {| i6_traffic_class := 0; i6_flow_label := 0; i6_payload_length := 8; i6_next_header := 17;
                    i6_hop_limit := 64; i6_source := repeat 1 16; i6_destination := repeat 2 16 |}
                 (ExtChain.Model.mkExts6 None None
                    (Some (ExtChain.Model.mkRouting (ExtChain.Model.mkRaw 17 0 [1; 2; 3; 4; 5; 6]) None)) None None) in
  iph_wf h6 = false /\ Roundtrip.IpHeadersBuild.iph_last_ok h6 6 = true /\
  match iph_set_payload_len (fst (iph_set_next_headers h6 6)) 5 with
  | Some h' => iph_wf h' = true /\ iph_final h' = 6 /\ iph_announced h' = Some 53
  | None => False
  end.
Proof. vm_compute. repeat split; reflexivity. Qed.
End IPHEADERS.

From EP Require Roundtrip.DecodersTotal Roundtrip.AuditFollowup Roundtrip.IpHeadersReadAny.
From EP Require Equiv.ReadValues.
Module AUDIT1.
Import Roundtrip.Common Roundtrip.Eth Roundtrip.Vlan Roundtrip.Sll Roundtrip.Macsec Roundtrip.Arp Roundtrip.Ipv4 Roundtrip.Ipv6
  Roundtrip.Auth Roundtrip.RawExt Roundtrip.Frag Roundtrip.Exts4 Roundtrip.Tcp Roundtrip.Udp Roundtrip.Icmp4 Roundtrip.Icmp6
  Roundtrip.Igmp Roundtrip.Grec Roundtrip.Prefix Roundtrip.IpHeaders Roundtrip.DecodersTotal.
Import Roundtrip.Common.

(* ---- the decoders are total: no model failure on ANY input --------------------------------- *)
(* The models return `Err EOOB` / `Err EPanic` where the transliterated code would read out of bounds
   (get_unchecked, from_raw_parts), panic on a slice index / unwrap, or where a part model of C12 / C16
   answers Panic / OutOfFuel / QBad / QUnderflow / QFuel.  The round-trip theorems above conclude `Ok`
   and so exclude these values for accepted inputs and well-formed values only.  Here, for every input
   -- rejected ones included -- every from_slice / read model of the 25 types returns `Ok _` or a proper
   error: `proper r` = r is Ok _, Err ELen, Err (EContent _) or Err EIo; `qreg q` (C12's reader of
   Ipv6Extensions, results of C16's qres) = q is QOk, QIo, QLen, QContent HopByHopNotAtStart or QContent
   ZeroPayloadLen; `x6_proper` (C12's from_slice) = not Panic / OutOfFuel.
   First theorem: no hypothesis at all (any list of numbers): the fixed-length types, MACsec, ICMP, IGMP,
   group record, PrefixInformation, the readers of Ipv6Extensions behind a plain reader and behind a
   LimitedReader of ANY budget. *)
Theorem C08_decoders_total_any : forall bs,
  proper (eth_from_slice bs) /\ proper (eth_read bs) /\
  proper (vl_from_slice bs) /\ proper (vl_read bs) /\
  proper (sll_from_slice bs) /\ proper (Sll.sll_read bs) /\
  proper (mac_from_slice bs) /\ proper (mac_read bs) /\
  proper (ip6_from_slice bs) /\ proper (ip6_read bs) /\
  proper (frag_from_slice bs) /\ proper (frag_read bs) /\
  proper (udp_from_slice bs) /\ proper (udp_read bs) /\
  proper (icmp4_from_slice bs) /\ proper (icmp4_read bs) /\
  proper (icmp6_from_slice bs) /\ proper (icmp6_read bs) /\
  proper (igmp_from_slice bs) /\ proper (grec_from_slice bs) /\ proper (pi_from_slice bs) /\
  (forall first, qreg (fst (ExtChain.ReadModel.read6 false first (IoFault.Model.mk_rstate (ExtChain.ReadModel.cursor bs) None)))) /\
  (forall first mx ls off ly, qreg (fst (ExtChain.ReadModel.read6 true first (limited bs mx ls off ly)))).
Proof. exact Roundtrip.DecodersTotal.decoders_total_any. Qed.
Print Assumptions C08_decoders_total_any.

(* types with a length octet / nibble (TCP data offset, IHL, AH payload length, extension header length,
   ARP address sizes) and the composite types on top of them: for BYTES.  A "byte" >= 256 sends the model
   into a buffer-index branch a real u8 cannot reach (witness: C08_decoders_total_ex). *)
Theorem C08_decoders_total : forall bs, bytes_ok bs ->
  proper (Tcp.from_slice bs) /\ proper (Tcp.read bs) /\
  proper (ip4_from_slice bs) /\ proper (ip4_read bs) /\
  proper (ah_from_slice bs) /\ proper (ah_read bs) /\
  proper (rx_from_slice bs) /\ proper (rx_read bs) /\
  proper (arp_from_slice bs) /\ proper (arp_read bs) /\
  (forall p, arp_from_slice bs = Ok p -> proper (arp_try_eth_ipv4 p)) /\
  (forall start, proper (x4_from_slice start bs) /\ proper (x4_read bs start)) /\
  (forall first, x6_proper (ExtChain.Model.from_slice first bs)) /\
  proper (iph_from_slice bs) /\ proper (iph_from_ipv4_slice bs) /\ proper (iph_from_ipv6_slice bs) /\
  proper (iph_read bs).
Proof. exact Roundtrip.DecodersTotal.decoders_total_bytes. Qed.
Print Assumptions C08_decoders_total.

(* from_bytes([u8; N]): the argument type fixes the length *)
Theorem C08_from_bytes_total : forall b,
  (len b = 14 -> proper (eth_from_bytes b)) /\ (len b = 4 -> proper (vl_from_bytes b)) /\
  (len b = 16 -> proper (sll_from_bytes b)) /\ (len b = 8 -> proper (udp_from_bytes b)) /\
  (len b = 32 -> proper (pi_from_bytes b)).
Proof. exact Roundtrip.DecodersTotal.from_bytes_total. Qed.
Print Assumptions C08_from_bytes_total.

Example C08_decoders_total_ex :
  ah_read ([17; 300] ++ repeat 0 10) = Err EPanic /\
  ah_from_slice [17; 2; 0; 0; 0; 0; 0; 1; 0; 0; 0; 2; 1; 2; 3] = Err ELen /\
  ah_read [17; 2; 0; 0; 0; 0; 0; 1; 0; 0; 0; 2; 1; 2; 3] = Err EIo /\
  Tcp.from_slice (repeat 0 12 ++ [64] ++ repeat 0 7) = Err (EContent 4) /\
  iph_read [69] = Err EIo /\ iph_read [64] = Err (EContent 0) /\
  iph_from_slice [96; 0; 0; 0; 0; 8; 0; 64] = Err ELen.
Proof. vm_compute. repeat split. Qed.

(* ---- Ipv4Header::write, without the range hypothesis of C08_Ipv4_write_recomputes ------------- *)
(* write = to_bytes of the header with header_checksum := calc_header_checksum(); the computed checksum IS
   a u16; header_len bytes; equal to to_bytes(h) exactly when the field was consistent *)
Theorem C08_Ipv4_write_recomputes_full : forall e h out, wf_ip4 h = true ->
  exists ck b, ip4_calc_checksum e h = Some ck /\ ck < 65536
    /\ ip4_to_bytes (ip4_set_checksum h ck) = Some b /\ ip4_write e out h = Some (out ++ b)
    /\ len b = ip4_header_len h
    /\ (i4_header_checksum h = ck -> ip4_to_bytes h = Some b).
Proof. exact Roundtrip.AuditFollowup.ip4_write_recomputes_full. Qed.
Print Assumptions C08_Ipv4_write_recomputes_full.

Example C08_Ipv4_write_recomputes_full_ex :
  wf_ip4 IPV4.ex_stale = true /\ ip4_calc_checksum Checksum.Model.LE IPV4.ex_stale = Some 12704 /\ i4_header_checksum IPV4.ex_stale = 0.
Proof. vm_compute. repeat split. Qed.

(* ---- IpHeaders::read of a written value, ANY continuation ------------------------------------ *)
(* C08_IpHeaders_dec_enc has the read half for IPv6 under iph_read_room h rest
   (payload_length - length of the extensions <= len rest: the reader still holds the announced payload),
   a hypothesis inherited from C12's read_limited theorems, not a property of the code: IpHeaders::read
   never looks at the payload.  Without it: for every well-formed value and every continuation of bytes --
   also a Cursor that ends right behind the headers -- read returns the written value, the final number
   and leaves exactly `rest` (a successful run of read_limited does not depend on the budget that is left
   over: Roundtrip/IpHeadersReadAny.mono_read6). *)
Theorem C08_IpHeaders_read_any : forall en h, iph_wf h = true ->
  exists w, iph_write en h = (w, ExtChain.Model.Ok tt) /\ len w = iph_header_len h
    /\ (forall rest, bytes_ok rest -> iph_read (w ++ rest) = Ok (iph_written en h, iph_final h, rest)).
Proof. exact Roundtrip.IpHeadersReadAny.iph_read_any. Qed.
Print Assumptions C08_IpHeaders_read_any.

(* non-vacuity: IPHEADERS.ex_v6 announces 18 payload bytes; the reader ends behind the headers / one byte
   later -- outside iph_read_room, accepted *)
Example C08_IpHeaders_read_any_ex :
  iph_wf IPHEADERS.ex_v6 = true /\ ~ iph_read_room IPHEADERS.ex_v6 [9] /\
  iph_read IPHEADERS.ex_v6_bytes = Ok (IPHEADERS.ex_v6, 17, []) /\
  iph_read (IPHEADERS.ex_v6_bytes ++ [9]) = Ok (IPHEADERS.ex_v6, 17, [9]).
Proof.
  split; [vm_compute; reflexivity|].
  split; [intros H; vm_compute in H; apply H; reflexivity|].
  vm_compute. repeat split.
Qed.

(* ---- Ipv6Extensions: decode(encode) with the reader (was C08_Exts6_dec_enc_partial) ------------ *)
(* C12 has since modelled Ipv6Extensions::read (ExtChain/ReadModel.v: read6 over C16's reader).  Every valid
   struct whose chain walks to a non-extension number, any bytes behind: write emits header_len bytes,
   from_slice returns the struct, the number and the rest, and read over a Cursor returns the same struct
   and number, has pulled exactly the written bytes and leaves the rest. *)
Theorem C08_Exts6_dec_enc : forall e first bs n rest, ExtChain.Model.exts6_valid e = true ->
  ExtChain.Model.write e first = (bs, ExtChain.Model.Ok tt) -> ExtChain.Model.next_header e first = ExtChain.Model.Ok n ->
  ExtChain.Spec.is_ext_number n = false -> bytes_ok rest ->
  len bs = ExtChain.Model.header_len e /\
  ExtChain.Model.from_slice first (bs ++ rest) = ExtChain.Model.Ok (e, n, rest) /\
  exists s', ExtChain.ReadModel.read6 false first (IoFault.Model.mk_rstate (ExtChain.ReadModel.cursor (bs ++ rest)) None)
             = (IoFault.Model.QOk (e, n), IoFault.Model.mk_rstate s' None)
             /\ IoFault.Spec.src_data s' = rest /\ IoFault.Spec.src_pulled s' = len bs.
Proof. exact Roundtrip.AuditFollowup.exts6_dec_enc_read. Qed.
Print Assumptions C08_Exts6_dec_enc.

Example C08_Exts6_dec_enc_ex :
  let e := ExtChain.Model.mkExts6 (Some (ExtChain.Model.mkRaw 44 0 [1; 2; 3; 4; 5; 6])) None None
             (Some (ExtChain.Model.mkFrag 17 1 true 1)) None in
  ExtChain.Model.exts6_valid e = true /\
  ExtChain.Model.write e 0 = ([44;0;1;2;3;4;5;6] ++ [17;0;0;9;0;0;0;1], ExtChain.Model.Ok tt) /\
  ExtChain.Model.next_header e 0 = ExtChain.Model.Ok 17 /\ ExtChain.Spec.is_ext_number 17 = false.
Proof. vm_compute. repeat split; reflexivity. Qed.

(* ---- UdpHeader::from_bytes (not in C08_Udp_dec_enc) ------------------------------------------- *)
Theorem C08_Udp_from_bytes : forall h, wf_udp h = true -> udp_from_bytes (udp_to_bytes h) = Ok h.
Proof. exact Roundtrip.AuditFollowup.udp_from_bytes_dec_enc. Qed.
Print Assumptions C08_Udp_from_bytes.
End AUDIT1.

(* (a) EXACT idempotence for IpHeaders (Roundtrip/IpHeadersIdem.v), (b) a POSITIONAL mask for
   Ipv6Extensions replacing the relation hdr_eq + the serialiser agreement (Roundtrip/Exts6Mask.v), carried
   over to IpHeaders, (c) explicit idempotence for ArpEthIpv4Packet (Roundtrip/ArpIdem.v).
   Compositions of the models above; no further model of Rust code. *)
From EP Require Roundtrip.IpHeadersIdem Roundtrip.ArpIdem Roundtrip.Exts6Mask.
Module ROUND3.
Import Checksum.Model Roundtrip.Common Roundtrip.Ipv4 Roundtrip.Ipv6 Roundtrip.Exts4 Roundtrip.Exts4Proofs Roundtrip.Arp.
Import Roundtrip.IpHeaders Roundtrip.IpHeadersProofs Roundtrip.IpHeadersIdem.

(* ---- (a) IpHeaders: the written value IS the decoded value <-> the wire checksum is right ---------- *)
(* For every accepted byte string: `iph_written en h` (what C08_IpHeaders_enc_dec / _dec_enc / _read_any
   return) is EQUAL (Leibniz, not only PartialEq) to the decoded h exactly when the header checksum field is
   the one calc_header_checksum() computes; that field is bytes 10-11 of the input (IPv4; IPv6 has none and
   the equality always holds). *)
Theorem C08_IpHeaders_written_exact : forall en bs h p, bytes_ok bs -> iph_from_slice bs = Ok (h, p) ->
  (iph_checksum_ok en h = true <-> iph_written en h = h)
  /\ (forall hd e, h = IpV4 hd e -> iph_wire_checksum bs = Some (i4_header_checksum hd)).
Proof. exact iph_written_exact. Qed.
Print Assumptions C08_IpHeaders_written_exact.

(* clause D at full strength: decode(write(decode bs) ++ payload ++ t) = decode bs, value AND payload
   description, holds exactly when the wire checksum is right (else the checksum field differs and nothing
   else: C08_IpHeaders_enc_dec) *)
Theorem C08_IpHeaders_idempotent : forall en bs h p, bytes_ok bs -> iph_from_slice bs = Ok (h, p) ->
  exists w cons t, iph_write en h = (w, ExtChain.Model.Ok tt) /\ len w = iph_header_len h
    /\ bs = cons ++ ipp_payload p ++ t /\ len cons = iph_header_len h
    /\ iph_reencodes en h cons w
    /\ (iph_from_slice (w ++ ipp_payload p ++ t) = Ok (h, p) <-> iph_checksum_ok en h = true).
Proof. exact iph_idempotent. Qed.
Print Assumptions C08_IpHeaders_idempotent.

(* non-vacuity: the same header with the right checksum (102;210) and with a wrong one (1;2) *)
Example C08_IpHeaders_idempotent_ex :
  match iph_from_slice ([69;0;0;24; 0;1;0;0; 64;17;102;210; 10;0;0;1; 10;0;0;2] ++ [9;9;9;9]) with
  | Ok (h, p) => iph_checksum_ok LE h = true /\ iph_written LE h = h
                 /\ iph_from_slice (fst (iph_write LE h) ++ ipp_payload p) = Ok (h, p)
  | _ => False
  end /\
  match iph_from_slice ([69;0;0;24; 0;1;0;0; 64;17;1;2; 10;0;0;1; 10;0;0;2] ++ [9;9;9;9]) with
  | Ok (h, p) => iph_checksum_ok LE h = false /\ iph_written LE h <> h
                 /\ iph_wire_checksum ([69;0;0;24; 0;1;0;0; 64;17;1;2; 10;0;0;1; 10;0;0;2] ++ [9;9;9;9]) = Some 258
  | _ => False
  end.
Proof.
  split.
  - vm_compute. repeat split; reflexivity.
  - vm_compute. split; [reflexivity|]. split; [intros E; discriminate E|reflexivity].
Qed.

(* ---- (b) carried over to IpHeaders: positional masks ------------------------------------------------ *)
(* iph_reencodes_pos = iph_reencodes with the IPv6 extension area compared under the positional mask
   Exts6Mask.x6_keep_mask (no hdr_eq); and with a right wire checksum ONE mask for the whole header area:
   iph_keep_mask h = ip4_keep_mask ++ x4_keep_mask resp. ones 40 ++ x6_keep_mask *)
Theorem C08_IpHeaders_enc_dec_mask : forall en bs h p, bytes_ok bs -> iph_from_slice bs = Ok (h, p) ->
  exists w cons t, iph_write en h = (w, ExtChain.Model.Ok tt) /\ len w = iph_header_len h
    /\ bs = cons ++ ipp_payload p ++ t /\ len cons = iph_header_len h
    /\ iph_reencodes_pos en h cons w
    /\ len (iph_keep_mask h) = iph_header_len h
    /\ (iph_checksum_ok en h = true -> agree (iph_keep_mask h) w cons).
Proof. exact iph_enc_dec_mask. Qed.
Print Assumptions C08_IpHeaders_enc_dec_mask.

Example C08_IpHeaders_enc_dec_mask_ex :
  match iph_from_slice ([96;0;0;0; 0;10; 44; 64] ++ repeat 1 16 ++ repeat 2 16 ++ [17;170;0;15;0;0;0;1] ++ [9;9]) with
  | Ok (h, p) => iph_keep_mask h = repeat 255 40 ++ [255; 0; 255; 249; 255; 255; 255; 255]
                 /\ iph_checksum_ok LE h = true
  | _ => False
  end.
Proof. vm_compute. split; reflexivity. Qed.

(* ... and ONE positional mask for EVERY accepted byte string, the checksum hypothesis moved into the mask:
   iph_keep_mask_ck ok h = iph_keep_mask h when the wire checksum is right, else the same mask with bytes
   10-11 (the IPv4 header checksum that write recomputes) cleared as well *)
Theorem C08_IpHeaders_enc_dec_mask_any : forall en bs h p, bytes_ok bs -> iph_from_slice bs = Ok (h, p) ->
  exists w cons t, iph_write en h = (w, ExtChain.Model.Ok tt) /\ bs = cons ++ ipp_payload p ++ t
    /\ agree (iph_keep_mask_ck (iph_checksum_ok en h) h) w cons.
Proof. exact iph_enc_dec_mask_any. Qed.
Print Assumptions C08_IpHeaders_enc_dec_mask_any.

Example C08_IpHeaders_enc_dec_mask_any_ex :
  match iph_from_slice ([69;0;0;24; 0;1;128;0; 64;17;1;2; 10;0;0;1; 10;0;0;2] ++ [9;9;9;9]) with
  | Ok (h, p) => iph_checksum_ok LE h = false
                 /\ iph_keep_mask_ck false h = [255;255;255;255; 255;255;127;255; 255;255;0;0] ++ repeat 255 8
                 /\ iph_keep_mask_ck true h = [255;255;255;255; 255;255;127;255] ++ repeat 255 12
  | _ => False
  end.
Proof. vm_compute. repeat split; reflexivity. Qed.

(* ---- (c) ArpEthIpv4Packet: explicit idempotence and the rejection classes of try_eth_ipv4 ---------- *)
(* every accepted byte string whose ArpPacket converts: the view's 28 bytes are the first 28 input bytes and
   decoding them again (from_slice and read, ANY bytes behind) returns THE SAME ArpPacket, hence the same view;
   to_arp_packet of the view is that packet *)
Theorem C08_ArpEthIpv4_idempotent : forall bs p v, bytes_ok bs -> arp_from_slice bs = Ok p ->
  arp_try_eth_ipv4 p = Ok v ->
  wf_ae v = true /\ len (ae_to_bytes v) = 28 /\ bs = ae_to_bytes v ++ drop 28 bs
  /\ ae_to_arp_packet v = Some p
  /\ forall rest, arp_from_slice (ae_to_bytes v ++ rest) = Ok p
                  /\ arp_read (ae_to_bytes v ++ rest) = Ok (p, rest)
                  /\ drop 28 (ae_to_bytes v ++ rest) = rest.
Proof. exact Roundtrip.ArpIdem.ae_idempotent. Qed.
Print Assumptions C08_ArpEthIpv4_idempotent.

(* try_eth_ipv4 on every well-formed (so every decoded) ArpPacket: Ok exactly for hardware type 1, protocol
   type 0x0800, sizes 6 / 4; otherwise the error names the first differing field in that order
   (EContent 0..3 = NonMatchingHwType, ProtocolType, HwAddrSize, ProtoAddrSize); never an undefined read *)
Theorem C08_ArpEthIpv4_try_classes : forall p, wf_arp p = true ->
  match arp_try_eth_ipv4 p with
  | Ok v => arp_hw_addr_type p = 1 /\ arp_proto_addr_type p = 2048 /\ arp_hw_addr_size p = 6
            /\ arp_proto_addr_size p = 4 /\ wf_ae v = true /\ ae_operation v = arp_operation p
  | Err (EContent 0) => arp_hw_addr_type p <> 1
  | Err (EContent 1) => arp_hw_addr_type p = 1 /\ arp_proto_addr_type p <> 2048
  | Err (EContent 2) => arp_hw_addr_type p = 1 /\ arp_proto_addr_type p = 2048 /\ arp_hw_addr_size p <> 6
  | Err (EContent 3) => arp_hw_addr_type p = 1 /\ arp_proto_addr_type p = 2048 /\ arp_hw_addr_size p = 6
                        /\ arp_proto_addr_size p <> 4
  | Err _ => False
  end.
Proof. exact Roundtrip.ArpIdem.ae_try_classes. Qed.
Print Assumptions C08_ArpEthIpv4_try_classes.

Example C08_ArpEthIpv4_idempotent_ex :
  let bs := [0;1; 8;0; 6; 4; 0;2; 1;2;3;4;5;6; 10;0;0;1; 7;8;9;10;11;12; 10;0;0;2] ++ [99; 98] in
  match arp_from_slice bs with
  | Ok p => match arp_try_eth_ipv4 p with
            | Ok v => ae_to_bytes v = take 28 bs /\ arp_from_slice (ae_to_bytes v ++ [5]) = Ok p
            | _ => False
            end
  | _ => False
  end /\
  match arp_from_slice [0;6; 8;0; 6; 4; 0;2; 1;2;3;4;5;6; 10;0;0;1; 7;8;9;10;11;12; 10;0;0;2] with
  | Ok p => wf_arp p = true /\ arp_try_eth_ipv4 p = Err (EContent 0)
  | _ => False
  end.
Proof. vm_compute. repeat split; reflexivity. Qed.
End ROUND3.

(* ---- (b) Ipv6Extensions (imports shadow Ok / Err: own module) -------------------------------------- *)
Module ROUND3_X6.
Import ExtChain.Spec ExtChain.Model Roundtrip.Exts6Mask.

(* A: Ipv6Extensions has ONE serialiser, write (-> write_internal; no to_bytes, no write_to_slice; IpHeaders::write
   and the packet builder call the same function).  x6_chain e first = the headers in the order of the
   next_header links (the loop of write_internal with each write replaced by the header written).  For every
   valid struct and first ip number: the bytes in the Vec -- also when write ends in an error -- are the
   to_bytes() of the chain's headers in that order, each header_len() long; when write succeeds they are
   header_len(e) bytes, the chain is a permutation of the headers the struct holds (each present header is
   written exactly once), and the positional mask has the same length. *)
Theorem C08_Exts6_ser_agree : forall e first, exts6_valid e = true ->
  fst (write e first) = parts_bytes (x6_chain e first)
  /\ Forall (fun p => part_to_bytes p = Some (part_bytes p) /\ len (part_bytes p) = part_len p)
            (x6_chain e first)
  /\ (snd (write e first) = Ok tt ->
      len (fst (write e first)) = header_len e /\ Permutation.Permutation (x6_chain e first) (x6_present e)
      /\ len (x6_keep_mask e first) = header_len e).
Proof. exact exts6_ser_agree. Qed.
Print Assumptions C08_Exts6_ser_agree.

(* C with a POSITIONAL mask (replaces hdr_eq of C08_Exts6_enc_dec): x6_keep_mask e first = concatenation, in
   chain order, of the parts' own masks -- all ones for a raw header (hop-by-hop, destination options,
   routing), Frag.frag_keep_mask = [255;0;255;249;255;255;255;255] for the fragment header, Auth.ah_keep_mask
   = [255;255;0;0] ++ ones for the authentication header (C08_Exts6_part_masks): every masked bit sits at a
   fixed offset in a header that starts at the sum of the lengths of the parts before it.  Every accepted
   byte string (also chains on which the decoder stops in front of a repeated header). *)
Theorem C08_Exts6_enc_dec_mask : forall first bs e n r, bytes_ok bs -> from_slice first bs = Ok (e, n, r) ->
  exts6_valid e = true /\
  exists bs' cons, write e first = (bs', Ok tt) /\ next_header e first = Ok n
    /\ bs = cons ++ r /\ Roundtrip.Common.agree (x6_keep_mask e first) bs' cons
    /\ bs' = parts_bytes (x6_chain e first) /\ len bs' = header_len e
    /\ forall t, from_slice first (bs' ++ t) = Ok (e, n, t).
Proof. exact exts6_enc_dec_mask. Qed.
Print Assumptions C08_Exts6_enc_dec_mask.

Theorem C08_Exts6_part_masks : forall e first,
  x6_keep_mask e first = flat_map part_mask (x6_chain e first) /\
  (forall h, part_mask (PRaw h) = Roundtrip.Common.ones (raw_header_len h)) /\
  (forall h, part_mask (PFrag h) = [255; 0; 255; 249; 255; 255; 255; 255]) /\
  (forall h, part_mask (PAuth h) = [255; 255; 0; 0] ++ Roundtrip.Common.ones (auth_header_len h - 4)).
Proof. exact (fun e first => conj eq_refl (conj part_mask_raw (conj part_mask_frag part_mask_auth))). Qed.
Print Assumptions C08_Exts6_part_masks.

(* non-vacuity: hop-by-hop -> fragment (reserved byte 170, reserved bits of byte 3 set) -> AH (reserved 9;9);
   and the same three headers linked AH -> fragment: the mask follows the chain, not the struct *)
Example C08_Exts6_mask_ex :
  let bs := [44;0;1;2;3;4;5;6] ++ [51;170;0;15;0;0;0;1] ++ [17;2;9;9; 0;0;0;1; 0;0;0;2; 1;2;3;4] ++ [7] in
  match from_slice 0 bs with
  | Ok (e, n, r) =>
    n = 17 /\ r = [7]
    /\ x6_chain e 0 = [PRaw (mkRaw 44 0 [1;2;3;4;5;6]); PFrag (mkFrag 51 1 true 1); PAuth (mkAuth 17 1 2 1 [1;2;3;4])]
    /\ x6_keep_mask e 0 = repeat 255 8 ++ [255;0;255;249;255;255;255;255] ++ [255;255;0;0] ++ repeat 255 12
    /\ fst (write e 0) = [44;0;1;2;3;4;5;6] ++ [51;0;0;9;0;0;0;1] ++ [17;2;0;0; 0;0;0;1; 0;0;0;2; 1;2;3;4]
  | _ => False
  end /\
  let bs2 := [51;0;1;2;3;4;5;6] ++ [44;2;9;9; 0;0;0;1; 0;0;0;2; 1;2;3;4] ++ [17;170;0;15;0;0;0;1] in
  match from_slice 0 bs2 with
  | Ok (e, n, r) =>
    n = 17 /\ r = []
    /\ x6_keep_mask e 0 = repeat 255 8 ++ [255;255;0;0] ++ repeat 255 12 ++ [255;0;255;249;255;255;255;255]
  | _ => False
  end.
Proof. vm_compute. repeat split; reflexivity. Qed.
End ROUND3_X6.
