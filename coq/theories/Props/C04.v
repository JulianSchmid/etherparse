(* Props/C04.v -- property C04: decoding into header structs agrees with slicing.
   Each theorem is the named lemma of the
   proof files; the Examples are test vectors checked by evaluation.

   Models : Parse/HdrModel.v  (PacketHeaders::{from_ethernet_slice, from_ether_type,
                               from_ip_slice}, read_transport, IpHeaders::{from_slice,
                               from_ipv4_slice, from_ipv6_slice}, Ipv6Extensions::from_slice ...)
            Parse/Slices.v + Parse/Cursor.v (SlicedPacket, proved equal to the wire
                               formats under C03/C07)
   Views  : Parse/HdrView.v   (`hvres_of_h`: what an observer sees of a PacketHeaders
                               result; `hvres_of_s`: a slicing result converted with
                               to_header() + its innermost payload; `hagree`: equal
                               views / equal error records, never Bug)
   Exception : Parse/HdrCut.v (`refilled`: the documented rule "no free slot in the fixed
                               struct"; `Cut.from_* true`: the strict slicing algorithm
                               with the IPv6 extension walk ended in front of the first
                               refilled header, which becomes the payload's protocol)

   FULL STATEMENT, PROVED (C04_headers_eq_slices), for all byte strings bs and ether types et:
     bytes_ok bs ->
       hagree (PacketHeaders.from_ethernet_slice bs) (Cut.from_ethernet true bs)
    /\ hagree (PacketHeaders.from_ether_type et bs)  (Cut.from_ether_type true et bs)
    /\ (F11 bs = false -> hagree (PacketHeaders.from_ip_slice bs) (Cut.from_ip true bs))
    /\ (F11 bs = true -> all from_ip results are Err)
   together with C04_cut_is_slicing_* below (the cut variant IS SlicedPacket.from_* unless
   it stopped in front of a refilled extension header, and with cut = false always), where
   F11 bs := first nibble 4 and length < 20 (known finding F11: the error records differ,
   witness C04_from_ip_records_refuted).  C04_headers_eq_slices_or_exception combines the
   two: PacketHeaders = SlicedPacket, or the documented exception.
   C04_headers_never_bug: no unwrap / push on a full ArrayVec / pointer subtraction
   underflow / out-of-range index is reachable in the struct decoders.

   Contents:
     - C04_cut_false_* and C04_cut_is_slicing_*: the relation between the cut variant and
       the strict slicing model, for whole packets and all three entry points (full);
     - the per-layer agreement lemmas (names ending in _partial: they are the layers of
       the full theorem): transport (UDP length handling = F5, TCP header length, ICMP
       header/payload split, error fix-ups), IPv4 (+ authentication header, total length
       handling), the IPv6 extension chain in lockstep with the cut (with the invariant
       tying the struct's slots to `refilled`, the fragmentation flag, the summed header
       length and the pointer offset), IPv6 (payload length handling, chain, view of the
       network header);
     - C04_headers_eq_slices, C04_headers_eq_slices_or_exception, C04_headers_never_bug
       (Parse/HdrProofs3.v): the assembly over the link-extension loop (VLAN / MACsec, at
       most 3, induction on the remaining capacity; offsets by pointer difference against
       the cursor's running offset = F9), ARP, IpHeaders::from_slice (bare IP entry
       point) and the three entry points. *)
From EP Require Import Base.Bytes Parse.Types Parse.Slices Parse.Cursor Parse.View
  Parse.HdrModel Parse.HdrView Parse.HdrCut Parse.HdrProofs Parse.HdrProofs2 Parse.HdrProofs3
  Parse.LaxSlices Parse.LaxCursor Parse.LaxView Parse.HdrLaxModel Parse.HdrLaxView Parse.HdrLaxProofs.
Import SlicedPacketCursor.

(* ---- the cut variant and the strict slicing model ------------------------------ *)
Theorem C04_cut_false_from_ethernet : forall bs,
  Cut.from_ethernet false bs = SlicedPacket.from_ethernet bs.
Proof. exact cut_false_from_ethernet. Qed.
Print Assumptions C04_cut_false_from_ethernet.

Theorem C04_cut_false_from_ether_type : forall et bs,
  Cut.from_ether_type false et bs = SlicedPacket.from_ether_type et bs.
Proof. exact cut_false_from_ether_type. Qed.
Print Assumptions C04_cut_false_from_ether_type.

Theorem C04_cut_false_from_ip : forall bs, Cut.from_ip false bs = SlicedPacket.from_ip bs.
Proof. exact cut_false_from_ip. Qed.
Print Assumptions C04_cut_false_from_ip.

(* unless the cut result is "IPv6 whose payload is announced as an extension header"
   (stopped_at_ext), cutting changed nothing: same verdict, same error record, same
   layers, same payload *)
Theorem C04_cut_is_slicing_ethernet : forall bs,
  stopped_at_ext (Cut.from_ethernet true bs) = false ->
  (forall b, Cut.from_ethernet true bs <> Bug b) ->
  Cut.from_ethernet true bs = SlicedPacket.from_ethernet bs.
Proof. exact cut_only_when_stopped_ethernet. Qed.
Print Assumptions C04_cut_is_slicing_ethernet.

Theorem C04_cut_is_slicing_ether_type : forall et bs,
  stopped_at_ext (Cut.from_ether_type true et bs) = false ->
  (forall b, Cut.from_ether_type true et bs <> Bug b) ->
  Cut.from_ether_type true et bs = SlicedPacket.from_ether_type et bs.
Proof. exact cut_only_when_stopped_ether_type. Qed.
Print Assumptions C04_cut_is_slicing_ether_type.

Theorem C04_cut_is_slicing_ip : forall bs,
  stopped_at_ext (Cut.from_ip true bs) = false ->
  (forall b, Cut.from_ip true bs <> Bug b) ->
  Cut.from_ip true bs = SlicedPacket.from_ip bs.
Proof. exact cut_only_when_stopped_ip. Qed.
Print Assumptions C04_cut_is_slicing_ip.

(* ---- per-layer agreement: the layers of C04_headers_eq_slices (which is proved below in
   full; the suffix `_partial` of these names means "one layer": each statement is complete
   for its layer) ------ *)
(* transport: read_transport of the struct family against the cursor's transport
   dispatch, for ANY IP payload descriptor: same header window, same payload window
   (UDP length field honoured by both), same error after both families' fix-ups *)
Theorem C04_transport_agrees_partial : forall c p,
  c_src c = ipp_src p -> sp_transport (c_result c) = None ->
  tr_rel c p (read_transport p) (transport_dispatch c p).
Proof. exact transport_agree. Qed.
Print Assumptions C04_transport_agrees_partial.

(* IPv4 (+ authentication header): same header slices, same payload descriptor, same
   error record, for every slice *)
Theorem C04_ipv4_agrees_partial : forall s, bytes_ok (snd s) ->
  ip4_rel s (IpHeaders.from_ipv4_slice s) (Ipv4Slice.from_slice s).
Proof. exact v4_agree. Qed.
Print Assumptions C04_ipv4_agrees_partial.

(* the IPv6 extension loop of the struct decoder runs in lockstep with the slicing walk
   cut at the first refilled header: same rest, same next header, same error; the
   struct's slots mirror `refilled`, its summed length is the consumed byte count *)
Theorem C04_ipv6_chain_agrees_cut_partial : forall fuel base x rest nh fl fr,
  inv6 base x fl fr rest -> bytes_ok (snd rest) -> (N.to_nat (s_len rest) < fuel)%nat ->
  walk_rel base (Ipv6Extensions.loop fuel base x rest nh)
                (Cut.walk true fuel (s_len base) rest nh fr fl).
Proof. exact walk_agree. Qed.
Print Assumptions C04_ipv6_chain_agrees_cut_partial.

(* IPv6: same payload descriptor, same view of the network header (header window, first
   extension, fragmentation flag, window of the extension area), same error record *)
Theorem C04_ipv6_agrees_cut_partial : forall s, bytes_ok (snd s) ->
  ip6_rel s (IpHeaders.from_ipv6_slice s) (Cut.v6_from_slice true s).
Proof. exact v6_agree. Qed.
Print Assumptions C04_ipv6_agrees_cut_partial.

(* ---- the property: whole packets, all three entry points --------------------------- *)
(* F11 (decidable): the first byte announces IPv4 and the buffer is shorter than 20 bytes *)
Theorem C04_headers_eq_slices : forall bs et, bytes_ok bs ->
  hagree (PacketHeaders.from_ethernet_slice bs) (Cut.from_ethernet true bs) /\
  hagree (PacketHeaders.from_ether_type et bs) (Cut.from_ether_type true et bs) /\
  (F11 bs = false -> hagree (PacketHeaders.from_ip_slice bs) (Cut.from_ip true bs)) /\
  (F11 bs = true ->
     (exists e, PacketHeaders.from_ip_slice bs = Err e) /\ (exists e, Cut.from_ip true bs = Err e) /\
     (exists e, SlicedPacket.from_ip bs = Err e)).
Proof. exact hdr_eq_slices. Qed.
Print Assumptions C04_headers_eq_slices.

(* PacketHeaders = SlicedPacket (same verdict and error record, same layers with the same
   header windows, same payload window), or the documented exception: slicing cut at the
   first refilled IPv6 extension header stopped there, and PacketHeaders is that result *)
Theorem C04_headers_eq_slices_or_exception : forall bs et, bytes_ok bs ->
  (hagree (PacketHeaders.from_ethernet_slice bs) (SlicedPacket.from_ethernet bs) \/
   (stopped_at_ext (Cut.from_ethernet true bs) = true /\
    hagree (PacketHeaders.from_ethernet_slice bs) (Cut.from_ethernet true bs))) /\
  (hagree (PacketHeaders.from_ether_type et bs) (SlicedPacket.from_ether_type et bs) \/
   (stopped_at_ext (Cut.from_ether_type true et bs) = true /\
    hagree (PacketHeaders.from_ether_type et bs) (Cut.from_ether_type true et bs))) /\
  (F11 bs = false ->
   hagree (PacketHeaders.from_ip_slice bs) (SlicedPacket.from_ip bs) \/
   (stopped_at_ext (Cut.from_ip true bs) = true /\
    hagree (PacketHeaders.from_ip_slice bs) (Cut.from_ip true bs))).
Proof. exact hdr_eq_slices_or_exception. Qed.
Print Assumptions C04_headers_eq_slices_or_exception.

(* the struct decoders (and the observer view of their results) never return Bug: the
   unwraps in the to_header() conversions, push on the ArrayVec, the pointer offset
   subtraction and checked indexing cannot fail, for every byte string (F11 included) *)
Theorem C04_headers_never_bug : forall bs et b, bytes_ok bs ->
  (PacketHeaders.from_ethernet_slice bs <> Bug b /\
   PacketHeaders.from_ether_type et bs <> Bug b /\
   PacketHeaders.from_ip_slice bs <> Bug b) /\
  (hvres_of_h (PacketHeaders.from_ethernet_slice bs) <> HBug b /\
   hvres_of_h (PacketHeaders.from_ether_type et bs) <> HBug b /\
   hvres_of_h (PacketHeaders.from_ip_slice bs) <> HBug b).
Proof. exact (fun bs et b H => conj (hdr_never_bug_raw bs et b H) (hdr_never_bug bs et b H)). Qed.
Print Assumptions C04_headers_never_bug.

(* the hypotheses are satisfiable, on both sides of F11, behind VLAN + MACsec *)
Definition ex_vlan_macsec_arp : bytes :=
  [1;2;3;4;5;6; 7;8;9;10;11;12; 129;0;  0;5; 136;229;
   0;0; 0;0;0;1; 8;6;
   0;1;8;0;6;4;0;1; 1;2;3;4;5;6; 10;0;0;1; 0;0;0;0;0;0; 10;0;0;2].
Example C04_ex_assembly :
  bytes_ok ex_vlan_macsec_arp /\ F11 ex_vlan_macsec_arp = false /\ F11 [64] = true /\
  hvres_of_h (PacketHeaders.from_ethernet_slice ex_vlan_macsec_arp) =
    HOk (mkHv (Some (0, 14)) [HvVlan (14, 4); HvMacsec (18, 8)] (Some (HvArp (26, 28))) None HvpEmpty).
Proof.
  split; [apply bytes_okb_spec; vm_compute; reflexivity|]. vm_compute. repeat split.
Qed.

(* ---- non-vacuity and witnesses (whole packets, by computation) ------------------ *)
(* Ethernet / VLAN / IPv4 / UDP with a UDP length (8) below the IP payload size (12):
   both families cut the payload to 0 bytes (F5 situation) *)
Definition ex_f5 : bytes :=
  [1;2;3;4;5;6; 7;8;9;10;11;12; 129;0;  0;5; 8;0;
   69;0;0;32; 0;0;0;0; 64;17;0;0; 1;2;3;4; 5;6;7;8;
   0;1;0;2;0;8;0;0; 170;187;204;221].
Example C04_ex_f5 :
  bytes_ok ex_f5 /\
  hvres_of_h (PacketHeaders.from_ethernet_slice ex_f5) =
    HOk (mkHv (Some (0, 14)) [HvVlan (14, 4)] (Some (HvIpv4 (18, 20) None))
              (Some (HvUdp (38, 8))) (HvpUdp (46, 0))) /\
  hagree (PacketHeaders.from_ethernet_slice ex_f5) (SlicedPacket.from_ethernet ex_f5).
Proof.
  split; [apply bytes_okb_spec; vm_compute; reflexivity|].
  split; [vm_compute; reflexivity|].
  split; [vm_compute; reflexivity|]. intros b. vm_compute. discriminate.
Qed.

(* the documented exception: IPv6, fragment header, second fragment header, UDP.
   Struct decoding stops in front of the second fragment header (no free slot) and
   reports it as the payload's protocol (44); this is exactly the cut slicing result,
   and it differs from the full slicing result, which goes on to the UDP header *)
Definition ex_dup : bytes :=
  [96;0;0;0; 0;24; 44;64] ++ repeat 0 32 ++
  [44;0;0;0;0;0;0;0] ++ [17;0;0;0;0;0;0;0] ++ [0;1;0;2;0;8;0;0].
Example C04_ex_exception :
  bytes_ok ex_dup /\
  hvres_of_h (PacketHeaders.from_ip_slice ex_dup) =
    HOk (mkHv None [] (Some (HvIpv6 (0, 40) (Some 44) false (40, 8))) None
              (HvpIp (mkVIp 44 false LsIpv6HeaderPayloadLen (48, 16)))) /\
  hagree (PacketHeaders.from_ip_slice ex_dup) (Cut.from_ip true ex_dup) /\
  stopped_at_ext (Cut.from_ip true ex_dup) = true /\
  hvres_of_s (SlicedPacket.from_ip ex_dup) =
    HOk (mkHv None [] (Some (HvIpv6 (0, 40) (Some 44) false (40, 16))) (Some (HvUdp (56, 8)))
              (HvpUdp (64, 0))).
Proof.
  split; [apply bytes_okb_spec; vm_compute; reflexivity|].
  split; [vm_compute; reflexivity|].
  split; [split; [vm_compute; reflexivity|intros b; vm_compute; discriminate]|].
  vm_compute. repeat split.
Qed.

(* a fault behind the refilled header goes unnoticed by struct decoding: destination
   options, routing, destination options, destination options (no slot), then a
   hop-by-hop header that slicing rejects *)
Definition ex_dup_err : bytes :=
  [96;0;0;0; 0;40; 60;64] ++ repeat 0 32 ++
  [43;0;0;0;0;0;0;0] ++ [60;0;0;0;0;0;0;0] ++ [60;0;0;0;0;0;0;0] ++ [0;0;0;0;0;0;0;0] ++
  [59;0;0;0;0;0;0;0].
Example C04_ex_exception_fault_behind :
  hagree (PacketHeaders.from_ip_slice ex_dup_err) (Cut.from_ip true ex_dup_err) /\
  stopped_at_ext (Cut.from_ip true ex_dup_err) = true /\
  SlicedPacket.from_ip ex_dup_err = Err (EContent CeHopByHopNotAtStart).
Proof.
  split; [split; [vm_compute; reflexivity|intros b; vm_compute; discriminate]|].
  vm_compute. repeat split.
Qed.

(* known finding F11 (not an instance of the documented exception): a first IPv4 header
   cut short at the bare-IP entry point is rejected by both families, with different
   error records *)
Theorem C04_from_ip_records_refuted :
  exists bs, bytes_ok bs /\
    hvres_of_h (PacketHeaders.from_ip_slice bs) = HErr (ELen (mkLenError 20 1 LsSlice LyIpv4Header 0)) /\
    hvres_of_s (SlicedPacket.from_ip bs) = HErr (EContent (CeIpIhl 0)).
Proof.
  exact (ex_intro _ [64]
    (conj (proj1 (bytes_okb_spec [64]) eq_refl) (conj eq_refl eq_refl))).
Qed.
Print Assumptions C04_from_ip_records_refuted.

(* ---- the lax families, per layer ------------------------------------------------------ *)
(* Model of LaxPacketHeaders: Parse/HdrLaxModel.v (from_ethernet, from_ether_type, from_ip,
   from_linux_sll, add_ip, the stop_err field; IpHeaders / Ipv6Extensions / Ipv4Extensions
   ::from_slice_lax), compared exactly with the implementation on every generated case.
   FULL STATEMENT, further down (C04_lax_headers_eq_slices +
   C04_lax_headers_eq_slices_strict + C04_lax_cut_is_slicing_* +
   C04_lax_headers_eq_slices_or_exception + C04_lax_headers_never_bug): for the three entry
   points and every byte string, the view of the LaxPacketHeaders result = the converted
   LaxSlicedPacket result (headers, payload window + incomplete flag, stop error and its layer)
   up to the record-level differences (C), (D) and the F11-like class, unless the documented
   exception.  The three theorems directly below are LAYERS of that theorem (transport layer,
   IPv4 layer, whole packets at the bare-IP entry point with a first nibble 4); their names
   end in `_partial` like the per-layer names of the
   strict pair above (C04_transport_agrees_partial, C04_ipv4_agrees_partial,
   C04_ipv6_chain_agrees_cut_partial, C04_ipv6_agrees_cut_partial): each is complete for its
   layer, and the whole-packet theorems C04_headers_eq_slices / C04_lax_headers_eq_slices
   compose them.  Not covered by a theorem: LaxPacketHeaders::from_linux_sll (implementation-
   side comparison only). *)

(* the "decode transport layer" block of LaxPacketHeaders::add_ip against
   LaxSlicedPacketCursor::slice_transport, for ANY lax IP payload descriptor: same header
   window, same payload window with the IP payload's incomplete flag, same stop error
   (layer, offset, length source) *)
Theorem C04_lax_transport_agrees_partial : forall self1 p c,
  LaxSlicedPacketCursor.has_stop (lc_result c) = false -> lsp_transport (lc_result c) = None ->
  ltr_rel self1 p c (LaxPacketHeaders.add_transport self1 p (lc_offset c))
                    (LaxSlicedPacketCursor.slice_transport c p).
Proof. exact lax_transport_agree. Qed.
Print Assumptions C04_lax_transport_agrees_partial.

(* the IPv4 arm of IpHeaders::from_slice_lax against the IPv4 arm of LaxIpSlice::from_slice
   (outside F11): same header and authentication header slices, same payload descriptor
   (three-way total-length fall-back, incomplete flag, length source), same stop error *)
Theorem C04_lax_ipv4_agrees_partial : forall s b0,
  bytes_ok (snd s) -> rd (snd s) 0 = Some b0 -> N.shiftr b0 4 = 4 -> 20 <= s_len s ->
  lip4_rel s (LaxIpHeaders.from_slice_lax s) (LaxIpSlice.from_slice s).
Proof. exact lax_ip4_agree. Qed.
Print Assumptions C04_lax_ipv4_agrees_partial.

(* whole packets, bare-IP entry point, first nibble 4 (outside F11): LaxPacketHeaders::from_ip
   and LaxSlicedPacket::from_ip reject with the same error, or give the same IPv4 header
   and authentication header slices, the same transport header window, the same payload
   window and incomplete flag, and the same stop error *)
Theorem C04_lax_from_ip4_agrees_partial : forall bs b0,
  bytes_ok bs -> rd bs 0 = Some b0 -> N.shiftr b0 4 = 4 -> 20 <= len bs ->
  lax_ip4_packet_rel (LaxPacketHeaders.from_ip bs) (LaxSlicedPacket.from_ip bs).
Proof. exact lax_from_ip4_agree. Qed.
Print Assumptions C04_lax_from_ip4_agrees_partial.

Example C04_ex_lax_ip4 :
  let bs := drop 18 ex_f5 in
  bytes_ok bs /\ rd bs 0 = Some 69 /\ N.shiftr 69 4 = 4 /\ 20 <= len bs /\
  lhvres_of_h (LaxPacketHeaders.from_ip bs) =
    LHOk (mkLHv None [] (Some (HvIpv4 (0, 20) None)) (Some (HvUdp (20, 8))) (LHvpUdp false (28, 0)) None).
Proof.
  cbv zeta. split; [apply bytes_okb_spec; vm_compute; reflexivity|].
  split; [vm_compute; reflexivity|]. split; [vm_compute; reflexivity|].
  split; [vm_compute; discriminate|]. vm_compute; reflexivity.
Qed.

(* the lax struct model on the F5 packet (UDP length 8 in a 12 byte IP payload) and on a
   packet cut inside the UDP header (stop error with offset and length source) *)
Example C04_ex_lax :
  lhvres_of_h (LaxPacketHeaders.from_ethernet ex_f5) =
    LHOk (mkLHv (Some (HvlEthernet2 (0, 14))) [HvVlan (14, 4)] (Some (HvIpv4 (18, 20) None))
                (Some (HvUdp (38, 8))) (LHvpUdp false (46, 0)) None) /\
  lhvres_of_h (LaxPacketHeaders.from_ethernet (take 42 ex_f5)) =
    LHOk (mkLHv (Some (HvlEthernet2 (0, 14))) [HvVlan (14, 4)] (Some (HvIpv4 (18, 20) None))
                None (LHvpIp (mkLVIp true 17 false LsSlice (38, 4)))
                (Some (ELen (mkLenError 8 4 LsSlice LyUdpHeader 38), LyUdpHeader))).
Proof. vm_compute. repeat split. Qed.

(* The LAX half of C04, whole packets: LaxPacketHeaders against LaxSlicedPacket.

   Definitions (Parse/HdrLaxCut.v):
     LaxCut.from_* cut    the lax slicing algorithm (LaxSlices.v + LaxCursor.v, textual copy) whose
                          IPv6 extension walk, with cut = true, ends WITHOUT stop error in front of
                          the first header with `refilled` (the rule of HdrCut.v), which becomes the
                          payload's protocol number; cut = false is LaxSlicedPacket.from_*
     lconv                a LaxSlicedPacket converted with to_header() of every slice, its innermost
                          payload (transport payload with the IP payload's incomplete flag, else IP
                          payload, nothing behind ARP, else LaxSlicedPacket::ether_payload() /
                          the modified MACsec payload) and its stop error
     lhagree f11 h s      same verdict; Err: the same record; Ok: same link / link extension /
                          network / transport header windows, the struct family's payload is the
                          slicing family's with the carried-forward length source (`carry_src`,
                          observation (D)), stop errors related by `stop_rel f11`: same layer tag and
                          the same record, or the same record up to the struct family saying Slice
                          (`lerr_rel`, observation (C)), or -- only with f11 = true and on the tag
                          IpHeader -- an F11 pair (`f11_pair`: a first IPv4 header of which fewer
                          than 20 bytes are present; same layer, `len`, offset); neither side nor
                          its view is Bug
     lax_f11 h            the decidable F11-like class, read off the LaxPacketHeaders result: stop
                          error Len{required 20, len < 20, layer Ipv4Header} on the tag IpHeader
     lax_stopped_at_ext   the cut happened: IPv6 result without stop error whose payload is announced
                          as an extension header (impossible in an uncut lax result)

   FULL STATEMENT, PROVED: C04_lax_headers_eq_slices + C04_lax_headers_eq_slices_strict +
   C04_lax_cut_is_slicing_* (+ the combination C04_lax_headers_eq_slices_or_exception), for every
   byte string and every ether type; C04_lax_headers_never_bug.  Proofs: Parse/HdrLaxCutProofs.v,
   HdrLaxProofs2.v (extension chain in lockstep, IPv6 layer, IP dispatch, F11),
   HdrLaxProofs3.v (add_ip / slice_ip, ARP, link-extension loop by induction on the remaining
   capacity, entry points). *)
From EP Require Import Parse.HdrLaxCut Parse.HdrLaxCutProofs Parse.HdrLaxProofs2 Parse.HdrLaxProofs3.

(* ---- the cut variant of the lax slicing model and the lax slicing model ------------------ *)
Theorem C04_lax_cut_false_from_ethernet : forall bs,
  LaxCut.from_ethernet false bs = LaxSlicedPacket.from_ethernet bs.
Proof. exact lcut_false_from_ethernet. Qed.
Print Assumptions C04_lax_cut_false_from_ethernet.

Theorem C04_lax_cut_false_from_ether_type : forall et bs,
  LaxCut.from_ether_type false et bs = LaxSlicedPacket.from_ether_type et bs.
Proof. exact lcut_false_from_ether_type. Qed.
Print Assumptions C04_lax_cut_false_from_ether_type.

Theorem C04_lax_cut_false_from_ip : forall bs, LaxCut.from_ip false bs = LaxSlicedPacket.from_ip bs.
Proof. exact lcut_false_from_ip. Qed.
Print Assumptions C04_lax_cut_false_from_ip.

Theorem C04_lax_cut_is_slicing_ethernet : forall bs,
  lax_stopped_at_ext (LaxCut.from_ethernet true bs) = false ->
  (forall b, LaxCut.from_ethernet true bs <> Bug b) ->
  LaxCut.from_ethernet true bs = LaxSlicedPacket.from_ethernet bs.
Proof. exact lcut_only_when_stopped_ethernet. Qed.
Print Assumptions C04_lax_cut_is_slicing_ethernet.

Theorem C04_lax_cut_is_slicing_ether_type : forall et bs,
  lax_stopped_at_ext (LaxCut.from_ether_type true et bs) = false ->
  (forall b, LaxCut.from_ether_type true et bs <> Bug b) ->
  LaxCut.from_ether_type true et bs = LaxSlicedPacket.from_ether_type et bs.
Proof. exact lcut_only_when_stopped_ether_type. Qed.
Print Assumptions C04_lax_cut_is_slicing_ether_type.

Theorem C04_lax_cut_is_slicing_ip : forall bs,
  lax_stopped_at_ext (LaxCut.from_ip true bs) = false ->
  (forall b, LaxCut.from_ip true bs <> Bug b) ->
  LaxCut.from_ip true bs = LaxSlicedPacket.from_ip bs.
Proof. exact lcut_only_when_stopped_ip. Qed.
Print Assumptions C04_lax_cut_is_slicing_ip.

(* ---- layers of the whole-packet theorem ------------------------------------------------------ *)
(* Ipv6Extensions::from_slice_lax (struct loop) in lockstep with the cut walk of
   Ipv6ExtensionsSlice::from_slice_lax: same rest, same next header, the same stop error (record
   and layer tag); the struct's slots mirror `refilled` (invariant inv6 of the strict half) *)
Theorem C04_lax_ipv6_chain_agrees_cut : forall fuel base x rest nh fl fr,
  inv6 base x fl fr rest -> bytes_ok (snd rest) -> (N.to_nat (s_len rest) < fuel)%nat ->
  lwalk_rel base (LaxIpv6Extensions.loop fuel base x rest nh)
                 (LaxCut.walk true fuel (s_len base) rest nh fr fl).
Proof. exact lwalk_agree. Qed.
Print Assumptions C04_lax_ipv6_chain_agrees_cut.

(* IpHeaders::from_slice_lax against (cut) LaxIpSlice::from_slice, any first nibble, outside F11:
   same Err record, or the same payload descriptor (fall-backs, incomplete flag, length source),
   the same view of the network header and the same stop error *)
Theorem C04_lax_ip_headers_agree_cut : forall s, bytes_ok (snd s) ->
  (forall b0, rd (snd s) 0 = Some b0 -> N.shiftr b0 4 = 4 -> 20 <= s_len s) ->
  lipd_rel s (LaxIpHeaders.from_slice_lax s) (LaxCut.ip_from_slice true s).
Proof. exact lax_ip_agree. Qed.
Print Assumptions C04_lax_ip_headers_agree_cut.

(* ---- the property, lax pair: whole packets, all three entry points ------------------------------ *)
Theorem C04_lax_headers_eq_slices : forall bs et, bytes_ok bs ->
  lhagree true (LaxPacketHeaders.from_ethernet bs) (LaxCut.from_ethernet true bs) /\
  lhagree true (LaxPacketHeaders.from_ether_type et bs) (LaxCut.from_ether_type true et bs) /\
  (F11 bs = false -> lhagree true (LaxPacketHeaders.from_ip bs) (LaxCut.from_ip true bs)) /\
  (F11 bs = true ->
     exists e e', LaxPacketHeaders.from_ip bs = Err e /\ LaxCut.from_ip true bs = Err e' /\
       LaxSlicedPacket.from_ip bs = Err e' /\ f11_pair e e').
Proof. exact lax_hdr_eq_slices. Qed.
Print Assumptions C04_lax_headers_eq_slices.

(* outside the F11-like class the F11 clause of the stop error relation is not needed *)
Theorem C04_lax_headers_eq_slices_strict : forall h s,
  lhagree true h s -> lax_f11 h = false -> lhagree false h s.
Proof. exact lhagree_strict. Qed.
Print Assumptions C04_lax_headers_eq_slices_strict.

(* LaxPacketHeaders agrees with LaxSlicedPacket, or the documented exception: lax slicing cut at the
   first refilled IPv6 extension header stopped there, and LaxPacketHeaders agrees with that *)
Theorem C04_lax_headers_eq_slices_or_exception : forall bs et, bytes_ok bs ->
  (lhagree true (LaxPacketHeaders.from_ethernet bs) (LaxSlicedPacket.from_ethernet bs) \/
   (lax_stopped_at_ext (LaxCut.from_ethernet true bs) = true /\
    lhagree true (LaxPacketHeaders.from_ethernet bs) (LaxCut.from_ethernet true bs))) /\
  (lhagree true (LaxPacketHeaders.from_ether_type et bs) (LaxSlicedPacket.from_ether_type et bs) \/
   (lax_stopped_at_ext (LaxCut.from_ether_type true et bs) = true /\
    lhagree true (LaxPacketHeaders.from_ether_type et bs) (LaxCut.from_ether_type true et bs))) /\
  (F11 bs = false ->
   lhagree true (LaxPacketHeaders.from_ip bs) (LaxSlicedPacket.from_ip bs) \/
   (lax_stopped_at_ext (LaxCut.from_ip true bs) = true /\
    lhagree true (LaxPacketHeaders.from_ip bs) (LaxCut.from_ip true bs))).
Proof. exact lax_hdr_eq_slices_or_exception. Qed.
Print Assumptions C04_lax_headers_eq_slices_or_exception.

(* LaxPacketHeaders (and the observer view of its results) never returns Bug: to_header() unwraps,
   push on the ArrayVec, pointer subtraction in add_ip, checked indexing; F11 inputs included *)
Theorem C04_lax_headers_never_bug : forall bs et b, bytes_ok bs ->
  (LaxPacketHeaders.from_ethernet bs <> Bug b /\ LaxPacketHeaders.from_ether_type et bs <> Bug b /\
   LaxPacketHeaders.from_ip bs <> Bug b) /\
  (lhvres_of_h (LaxPacketHeaders.from_ethernet bs) <> LHBug b /\
   lhvres_of_h (LaxPacketHeaders.from_ether_type et bs) <> LHBug b /\
   lhvres_of_h (LaxPacketHeaders.from_ip bs) <> LHBug b).
Proof. exact lax_hdr_never_bug. Qed.
Print Assumptions C04_lax_headers_never_bug.

(* pin the meaning of the relation *)
Check (eq_refl : lhagree =
  fun f11 h s =>
    match h, s with
    | Ok p, Ok sp => exists v v', lhview_of p = Ok v /\ lconv sp = Ok v' /\ lhv_rel f11 sp v v'
    | Err e, Err e' => e = e'
    | _, _ => False
    end).
Check (eq_refl : lhv_rel =
  fun f11 sp v v' =>
    lhv_link v = lhv_link v' /\ lhv_exts v = lhv_exts v' /\ lhv_net v = lhv_net v' /\
    lhv_tr v = lhv_tr v' /\ lhv_payload v = carry_src sp (lhv_payload v') /\
    stop_rel f11 (lhv_stop v) (lhv_stop v')).
Check (eq_refl : stop_rel =
  fun f11 h s =>
    match h, s with
    | None, None => True
    | Some (eh, ly), Some (es, ly') =>
        ly = ly' /\
        (match eh, es with
         | ELen lh, ELen ls => lerr_rel lh ls
         | EContent c, EContent c' => c = c'
         | _, _ => False
         end \/ (f11 = true /\ ly = LyIpHeader /\ f11_pair eh es))
    | _, _ => False
    end).
Check (eq_refl : lerr_rel = fun h s => h = s \/ h = le_set_src s LsSlice).
Check (eq_refl : f11_pair =
  fun eh es =>
    exists n off, n < 20 /\ eh = ELen (mkLenError 20 n LsSlice LyIpv4Header off) /\
      ((exists i, i < 5 /\ es = EContent (CeIpIhl i)) \/
       (exists hl src, 20 <= hl /\ es = ELen (mkLenError hl n src LyIpv4Header off)))).

(* ---- non-vacuity / witnesses (by computation) --------------------------------------------------- *)
(* observation (C): Ethernet II, MACsec with short length (8 byte body), IPv6 header cut short:
   the stop error names the MACsec short length in LaxSlicedPacket and Slice in LaxPacketHeaders;
   everything else is equal *)
Definition ex_macsec_short_v6cut : bytes :=
  [1;2;3;4;5;6; 7;8;9;10;11;12; 136;229;
   0;10; 0;0;0;1; 134;221;
   96;0;0;0; 0;0;17;64;
   170;187;204;221].
Example C04_ex_lax_obs_C :
  bytes_ok ex_macsec_short_v6cut /\
  lhvres_of_h (LaxPacketHeaders.from_ethernet ex_macsec_short_v6cut) =
    LHOk (mkLHv (Some (HvlEthernet2 (0, 14))) [HvMacsec (14, 8)] None None
                (LHvpEther (mkLVEp false 34525 LsMacsecShortLength (22, 8)))
                (Some (ELen (mkLenError 40 8 LsSlice LyIpv6Header 22), LyIpHeader))) /\
  lhvres_of_s (LaxSlicedPacket.from_ethernet ex_macsec_short_v6cut) =
    LHOk (mkLHv (Some (HvlEthernet2 (0, 14))) [HvMacsec (14, 8)] None None
                (LHvpEther (mkLVEp false 34525 LsMacsecShortLength (22, 8)))
                (Some (ELen (mkLenError 40 8 LsMacsecShortLength LyIpv6Header 22), LyIpHeader))) /\
  lax_f11 (LaxPacketHeaders.from_ethernet ex_macsec_short_v6cut) = false.
Proof. split; [apply bytes_okb_spec; vm_compute; reflexivity|]. vm_compute. repeat split. Qed.

(* observation (D): two MACsec headers, the first with a short length, the second without:
   LaxPacketHeaders carries MacsecShortLength forward into the ether payload,
   LaxSlicedPacket::ether_payload() says Slice *)
Definition ex_macsec2 : bytes :=
  [1;2;3;4;5;6; 7;8;9;10;11;12; 136;229;
   0;14; 0;0;0;1; 136;229;
   0;0; 0;0;0;2; 18;52;
   1;2;3;4;
   170;187].
Example C04_ex_lax_obs_D :
  bytes_ok ex_macsec2 /\
  lhvres_of_h (LaxPacketHeaders.from_ethernet ex_macsec2) =
    LHOk (mkLHv (Some (HvlEthernet2 (0, 14))) [HvMacsec (14, 8); HvMacsec (22, 8)] None None
                (LHvpEther (mkLVEp false 4660 LsMacsecShortLength (30, 4))) None) /\
  lhvres_of_s (LaxSlicedPacket.from_ethernet ex_macsec2) =
    LHOk (mkLHv (Some (HvlEthernet2 (0, 14))) [HvMacsec (14, 8); HvMacsec (22, 8)] None None
                (LHvpEther (mkLVEp false 4660 LsSlice (30, 4))) None).
Proof. split; [apply bytes_okb_spec; vm_compute; reflexivity|]. vm_compute. repeat split. Qed.

(* the documented exception in the lax pair (the packet of C04_ex_exception): LaxPacketHeaders stops
   in front of the second fragment header without stop error = lax slicing cut there; uncut lax
   slicing goes on to the UDP header *)
Example C04_ex_lax_exception :
  F11 ex_dup = false /\
  lax_stopped_at_ext (LaxCut.from_ip true ex_dup) = true /\
  lhvres_of_h (LaxPacketHeaders.from_ip ex_dup) = lhvres_of_s (LaxCut.from_ip true ex_dup) /\
  lhvres_of_h (LaxPacketHeaders.from_ip ex_dup) =
    LHOk (mkLHv None [] (Some (HvIpv6 (0, 40) (Some 44) false (40, 8))) None
                (LHvpIp (mkLVIp false 44 false LsIpv6HeaderPayloadLen (48, 16))) None) /\
  lhvres_of_s (LaxSlicedPacket.from_ip ex_dup) =
    LHOk (mkLHv None [] (Some (HvIpv6 (0, 40) (Some 44) false (40, 16))) (Some (HvUdp (56, 8)))
                (LHvpUdp false (64, 0)) None).
Proof. vm_compute. repeat split. Qed.

(* the F11-like class behind an ether type: 3 bytes of an IPv4 header announcing IHL 15 *)
Example C04_ex_lax_f11 :
  lax_f11 (LaxPacketHeaders.from_ether_type 2048 [79; 0; 0]) = true /\
  lhvres_of_h (LaxPacketHeaders.from_ether_type 2048 [79; 0; 0]) =
    LHOk (mkLHv None [] None None (LHvpEther (mkLVEp false 2048 LsSlice (0, 3)))
                (Some (ELen (mkLenError 20 3 LsSlice LyIpv4Header 0), LyIpHeader))) /\
  lhvres_of_s (LaxSlicedPacket.from_ether_type 2048 [79; 0; 0]) =
    LHOk (mkLHv None [] None None (LHvpEther (mkLVEp false 2048 LsSlice (0, 3)))
                (Some (ELen (mkLenError 60 3 LsSlice LyIpv4Header 0), LyIpHeader))) /\
  F11 [79; 0; 0] = true /\
  LaxPacketHeaders.from_ip [79; 0; 0] = Err (ELen (mkLenError 20 3 LsSlice LyIpv4Header 0)) /\
  LaxSlicedPacket.from_ip [79; 0; 0] = Err (ELen (mkLenError 60 3 LsSlice LyIpv4Header 0)).
Proof. vm_compute. repeat split. Qed.

(* The SLOTS of the struct Ipv6Extensions, one by one.

   `hagree` observes the struct Ipv6Extensions as (first next-header, fragmentation flag, SUM of
   the slot lengths): which header sits in which slot is not part of C04_headers_eq_slices.
   C04_ipv6_slots_in_order closes that: for every byte string and each of the three entry points,
   if PacketHeaders.from_* returns an IPv6 network layer (header slice hd, struct x), then the cut
   slicing result is Ok with an IPv6 network layer v on the SAME header slice, and the list l of
   extension headers that iterating `v.extensions()` yields (Parse/Access.v, Ipv6ExtIterA.items =
   IntoIterator + Ipv6ExtensionSliceIter::next until None) satisfies

     slots_hold x l   no two headers of l belong to the same slot, and slot k of x holds the slice s
                      <-> (k, s) is in `keyed false l`, the chain labelled with the slot each header
                      belongs to by the rule of Ipv6Extensions::from_slice (kind -> slot;
                      destination options -> first slot before a routing header, final destination
                      options slot behind one).  Slices are (offset, bytes): same window AND same
                      content.  Every filled slot is one yielded header, every yielded header sits in
                      the slot of its kind, all other slots are None; the wire order is the order of l
                      (it is NOT a fixed order of the slots: fragment / authentication / routing
                      headers may come in any order, see C04_ex_slots)
     chain .. l ..    l are consecutive pieces of the extension area of v from its start to its end,
                      each piece a well-formed header of THE KIND ANNOUNCED IN FRONT OF IT (the IPv6
                      header's next_header for the first one, octet 0 of the previous header
                      afterwards), with the length its own bytes announce
     win_of ..        the extension area is the window of exts6_len x bytes directly behind the 40 byte
                      header (so the chain are consecutive windows from s_off hd + 40:
                      C04_ipv6_slots_windows)

   C04_ipv6_slots_determined: the struct is determined by the chain (a struct with the contents of
   two slots swapped does not satisfy slots_hold for the same l).  The cut slicing result is the
   slicing result unless it stopped in front of a refilled header (the C04_cut_is_slicing theorems); in that
   case l are the headers in front of the cut.  C04_ipv6_struct_holds_chain (struct side alone) and
   C04_ipv6_iter_yields_chain (iterator alone) are the two halves the proof composes.
   Proofs: Parse/HdrSlots.v, Parse/HdrSlots2.v.  The same statement for the lax pair
   (LaxPacketHeaders / LaxSlicedPacket): C04_lax_ipv6_slots_in_order, at the end of this file. *)
From EP Require Import Parse.Access Parse.AccessProofs Parse.HdrSlots Parse.HdrSlots2.

Theorem C04_ipv6_slots_in_order : forall bs et, bytes_ok bs ->
  slots_in_order (PacketHeaders.from_ethernet_slice bs) (Cut.from_ethernet true bs) /\
  slots_in_order (PacketHeaders.from_ether_type et bs) (Cut.from_ether_type true et bs) /\
  slots_in_order (PacketHeaders.from_ip_slice bs) (Cut.from_ip true bs).
Proof. exact hdr_slots_in_order. Qed.
Print Assumptions C04_ipv6_slots_in_order.

Check (eq_refl : slots_in_order =
  fun h s =>
    forall hp hd x, h = Ok hp -> h_net hp = Some (HnIp (IhV6 hd x)) ->
    exists sp v first l nh_end,
      s = Ok sp /\ sp_net sp = Some (NtIpv6 v) /\ v6_header v = hd /\
      Ipv6HeaderSlice.next_header hd = Ok first /\
      Ipv6ExtIterA.items (v6_exts v) = Ok l /\
      slots_hold x l /\
      chain (x6_slice (v6_exts v)) 0 first l (exts6_len x) nh_end /\
      win_of (x6_slice (v6_exts v)) = (s_off hd + 40, exts6_len x)).
Check (eq_refl : slots_hold =
  fun x l => NoDup (map fst (keyed false l)) /\
             forall k s, slot_get x k = Some s <-> In (k, s) (keyed false l)).
Check (fun routed it r => eq_refl :
  keyed routed (it :: r) = (item_slot routed it, ext_item_slice it) :: keyed (routed_after routed it) r).
Check (eq_refl : item_slot =
  fun routed it =>
    match it with
    | XHopByHop _ => SHbh | XRouting _ => SRoute | XFragment _ => SFrag
    | XDestinationOptions _ => if routed then SFdest else SDest
    | XAuthentication _ => SAuth
    end).
Check (eq_refl : routed_after = fun routed it => match it with XRouting _ => true | _ => routed end).
Check (eq_refl : slot_get =
  fun x k => match k with
             | SHbh => x_hbh x | SDest => x_dest x | SRoute => x_route x
             | SFdest => x_fdest x | SFrag => x_frag x | SAuth => x_auth x
             end).
Check (fun W k nh k' nh' => eq_refl : chain W k nh [] k' nh' = (k' = k /\ nh' = nh)).
Check (fun W k nh it r k' nh' => eq_refl :
  chain W k nh (it :: r) k' nh' =
  (item_kind it = nh /\ item_wf it /\
   subU W k (s_len (ext_item_slice it)) = Ok (ext_item_slice it) /\
   exists nx, rdU (ext_item_slice it) 0 = Ok nx /\
              chain W (k + s_len (ext_item_slice it)) nx r k' nh')).
Check (eq_refl : item_kind =
  fun it => match it with
            | XHopByHop _ => 0 | XRouting _ => 43 | XFragment _ => 44
            | XDestinationOptions _ => 60 | XAuthentication _ => 51
            end).

Theorem C04_ipv6_slots_determined : forall x x' l, slots_hold x l -> slots_hold x' l -> x = x'.
Proof. exact slots_hold_unique. Qed.
Print Assumptions C04_ipv6_slots_determined.

Theorem C04_ipv6_slots_windows : forall W l first k' nh',
  chain W 0 first l k' nh' -> wchain first (s_off W) l nh' (s_off W + k').
Proof. exact chain_windows. Qed.
Print Assumptions C04_ipv6_slots_windows.
Check (fun nh pos it r nh_end pos_end => eq_refl :
  wchain nh pos (it :: r) nh_end pos_end =
  (item_kind it = nh /\ s_off (ext_item_slice it) = pos /\ item_wf it /\
   exists nx, rdU (ext_item_slice it) 0 = Ok nx /\
              wchain nx (pos + s_len (ext_item_slice it)) r nh_end pos_end)).

Theorem C04_ipv6_struct_holds_chain : forall nh0 hp x nh' r,
  Ipv6Extensions.from_slice nh0 hp = Ok (x, nh', r) ->
  exists l k', slots_hold x l /\ chain hp 0 nh0 l k' nh' /\ k' <= s_len hp /\ r = at_off hp k'.
Proof. exact from_slice_slots. Qed.
Print Assumptions C04_ipv6_struct_holds_chain.

Theorem C04_ipv6_iter_yields_chain : forall I l k nh nh' fuel,
  chain I k nh l (s_len I) nh' -> k <= s_len I -> (length l < fuel)%nat ->
  Ipv6ExtIterA.collect fuel (mkExtIter nh (at_off I k)) = Ok l.
Proof. exact collect_chain. Qed.
Print Assumptions C04_ipv6_iter_yields_chain.

Definition ex_order : bytes :=
  [96;0;0;0; 0;52; 44;64] ++ repeat 0 32 ++
  [60;0;0;0;0;0;0;0] ++ [43;0;0;0;0;0;0;0] ++ [60;0;0;0;0;0;0;0] ++ [51;0;0;0;0;0;0;0] ++
  [17;1;0;0;0;0;0;0;0;0;0;0] ++ [0;1;0;2;0;8;0;0].
Definition slot_wins (x : exts6) : list (option window) :=
  map (fun k => option_map win_of (slot_get x k)) [SHbh; SDest; SRoute; SFdest; SFrag; SAuth].
Definition item_tag (it : ext_item) : N * window := (item_kind it, win_of (ext_item_slice it)).
Example C04_ex_slots :
  bytes_ok ex_order /\
  exists hp hd x sp v l,
    PacketHeaders.from_ip_slice ex_order = Ok hp /\ h_net hp = Some (HnIp (IhV6 hd x)) /\
    Cut.from_ip true ex_order = Ok sp /\ sp_net sp = Some (NtIpv6 v) /\
    Ipv6ExtIterA.items (v6_exts v) = Ok l /\
    map item_tag l = [(44, (40, 8)); (60, (48, 8)); (43, (56, 8)); (60, (64, 8)); (51, (72, 12))] /\
    slot_wins x = [None; Some (48, 8); Some (56, 8); Some (64, 8); Some (40, 8); Some (72, 12)] /\
    stopped_at_ext (Ok sp) = false.
Proof.
  split; [apply bytes_okb_spec; vm_compute; reflexivity|].
  do 6 eexists. split; [vm_compute; reflexivity|]. split; [reflexivity|].
  split; [vm_compute; reflexivity|]. split; [reflexivity|]. split; [vm_compute; reflexivity|].
  vm_compute. repeat split.
Qed.
Example C04_ex_slots_exception :
  exists hp hd x sp v l,
    PacketHeaders.from_ip_slice ex_dup = Ok hp /\ h_net hp = Some (HnIp (IhV6 hd x)) /\
    Cut.from_ip true ex_dup = Ok sp /\ sp_net sp = Some (NtIpv6 v) /\
    Ipv6ExtIterA.items (v6_exts v) = Ok l /\
    map item_tag l = [(44, (40, 8))] /\
    slot_wins x = [None; None; None; None; Some (40, 8); None] /\
    stopped_at_ext (Ok sp) = true.
Proof.
  do 6 eexists. split; [vm_compute; reflexivity|]. split; [reflexivity|].
  split; [vm_compute; reflexivity|]. split; [reflexivity|]. split; [vm_compute; reflexivity|].
  vm_compute. repeat split.
Qed.

(* The same statement for the lax pair: LaxPacketHeaders against the cut LaxSlicedPacket result.
   A stop error ends the chain: the headers decoded in front of the fault stay in their slots and
   are exactly what the lax slicing result iterates to.  Proofs: Parse/HdrLaxSlots.v, HdrLaxSlots2.v
   (lockstep with the invariant lloop_inv of HdrLaxProofs3.v). *)
From EP Require Import Parse.HdrLaxSlots Parse.HdrLaxSlots2.

Theorem C04_lax_ipv6_slots_in_order : forall bs et, bytes_ok bs ->
  lax_slots_in_order (LaxPacketHeaders.from_ethernet bs) (LaxCut.from_ethernet true bs) /\
  lax_slots_in_order (LaxPacketHeaders.from_ether_type et bs) (LaxCut.from_ether_type true et bs) /\
  lax_slots_in_order (LaxPacketHeaders.from_ip bs) (LaxCut.from_ip true bs).
Proof. exact lax_hdr_slots_in_order. Qed.
Print Assumptions C04_lax_ipv6_slots_in_order.
Check (eq_refl : lax_slots_in_order =
  fun h s =>
    forall hp hd x, h = Ok hp -> lh_net hp = Some (HnIp (IhV6 hd x)) ->
    exists sp v first l nh_end,
      s = Ok sp /\ lsp_net sp = Some (LNtIpv6 v) /\ lv6_header v = hd /\
      Ipv6HeaderSlice.next_header hd = Ok first /\
      Ipv6ExtIterA.items (lv6_exts v) = Ok l /\
      slots_hold x l /\
      chain (x6_slice (lv6_exts v)) 0 first l (exts6_len x) nh_end /\
      win_of (x6_slice (lv6_exts v)) = (s_off hd + 40, exts6_len x)).

Theorem C04_lax_ipv6_struct_holds_chain : forall nh0 hp x nh' r st,
  LaxIpv6Extensions.from_slice_lax nh0 hp = Ok (x, nh', r, st) ->
  exists l k', slots_hold x l /\ chain hp 0 nh0 l k' nh' /\ k' <= s_len hp /\ r = at_off hp k'.
Proof. exact lax_from_slice_slots. Qed.
Print Assumptions C04_lax_ipv6_struct_holds_chain.

(* the packet of C04_ex_slots cut inside its authentication header: the lax struct keeps the four
   headers in front of the fault in their slots, the authentication slot stays empty, the stop error
   names the authentication header; the cut lax slicing result iterates to the same four headers *)
Example C04_ex_lax_slots :
  let bs := take 80 ex_order in
  exists hp hd x sp v l,
    LaxPacketHeaders.from_ip bs = Ok hp /\ lh_net hp = Some (HnIp (IhV6 hd x)) /\
    LaxCut.from_ip true bs = Ok sp /\ lsp_net sp = Some (LNtIpv6 v) /\
    Ipv6ExtIterA.items (lv6_exts v) = Ok l /\
    map item_tag l = [(44, (40, 8)); (60, (48, 8)); (43, (56, 8)); (60, (64, 8))] /\
    slot_wins x = [None; Some (48, 8); Some (56, 8); Some (64, 8); Some (40, 8); None] /\
    option_map snd (lh_stop hp) = Some LyIpAuthHeader.
Proof.
  cbv zeta. do 6 eexists. split; [vm_compute; reflexivity|]. split; [reflexivity|].
  split; [vm_compute; reflexivity|]. split; [reflexivity|]. split; [vm_compute; reflexivity|].
  vm_compute. repeat split.
Qed.

(* The headers in front of the cut are a prefix of what the UNCUT slicing result yields: whenever the
   cut run and SlicedPacket.from_* both return an IPv6 network layer, it is on the same IPv6 header
   slice, and iterating the extensions of the slicing result yields the items of the cut result
   followed by more (none when the cut did not happen).  With C04_ipv6_slots_in_order: the struct's
   slots hold, in wire order, the first extension headers that `SlicedPacket::from_*` yields, up to
   the cut point.  (When the uncut walk fails behind the cut there is no slicing result to compare
   with: C04_ex_exception_fault_behind.)  Proof: Parse/HdrSlots3.v. *)
From EP Require Import Parse.HdrSlots3.
Theorem C04_cut_items_prefix_of_slicing : forall bs et,
  cut_items_prefix (Cut.from_ethernet true bs) (SlicedPacket.from_ethernet bs) /\
  cut_items_prefix (Cut.from_ether_type true et bs) (SlicedPacket.from_ether_type et bs) /\
  cut_items_prefix (Cut.from_ip true bs) (SlicedPacket.from_ip bs).
Proof. exact cut_prefix_of_slicing. Qed.
Print Assumptions C04_cut_items_prefix_of_slicing.
Check (eq_refl : cut_items_prefix =
  fun a b =>
    forall sp v sp', a = Ok sp -> sp_net sp = Some (NtIpv6 v) -> b = Ok sp' ->
    exists v', sp_net sp' = Some (NtIpv6 v') /\ v6_header v' = v6_header v /\
      forall l l2, Ipv6ExtIterA.items (v6_exts v) = Ok l -> Ipv6ExtIterA.items (v6_exts v') = Ok l2 ->
                   exists l', l2 = l ++ l').
(* the packet of C04_ex_exception: one fragment header in front of the cut, two in the slicing result *)
Example C04_ex_prefix :
  exists sp v sp' v' l l2,
    Cut.from_ip true ex_dup = Ok sp /\ sp_net sp = Some (NtIpv6 v) /\
    SlicedPacket.from_ip ex_dup = Ok sp' /\ sp_net sp' = Some (NtIpv6 v') /\
    Ipv6ExtIterA.items (v6_exts v) = Ok l /\ Ipv6ExtIterA.items (v6_exts v') = Ok l2 /\
    map item_tag l = [(44, (40, 8))] /\ map item_tag l2 = [(44, (40, 8)); (44, (48, 8))].
Proof.
  do 6 eexists. split; [vm_compute; reflexivity|]. split; [reflexivity|].
  split; [vm_compute; reflexivity|]. split; [reflexivity|].
  split; [vm_compute; reflexivity|]. split; [vm_compute; reflexivity|].
  vm_compute. repeat split.
Qed.

(* Header VALUE equality (the property text says "returns the same link,
   link-extension, network and transport HEADERS as converting the slicing result"; hagree compares
   the header WINDOWS).

   C04_header_slices_hold_input: every slice stored in a PacketHeaders model result -- Ethernet II
   header, each VLAN / MACsec header, IPv4 header + authentication header, IPv6 header + each of the
   six extension slots, ARP packet, transport header (incl. the ICMPv4 8/20 byte header), payload --
   lies inside the input and holds the bytes of the input at its position (`in_win`); no hypothesis
   on the bytes.  (Both families model a decoded struct as the slice it was decoded from; this
   theorem is what makes "same window" mean "same bytes".)

   C04_header_values_eq_slices: whenever PacketHeaders.from_* and the cut slicing result are both
   Ok (they are Ok together: C04_headers_eq_slices), the VALUES agree header by header:
   `hvals_of_h` = to_header() / to_packet() / header() (accessor models of Parse/Access.v:
   Ethernet2A, SingleVlanA, MacsecHeaderA, Ipv4HeaderA, IpAuthHeaderA, Ipv6HeaderA,
   ArpPacketA.to_packet, UdpA, TcpHeaderSliceA, Icmpv4A.header, Icmpv6A.header) of the struct-side
   slice; `hvals_of_s` = the same conversions of the slices of the slicing result, as
   SlicedPacket -> to_header() does (Ethernet2Slice / SingleVlanSlice / MacsecSlice.header /
   Ipv4Slice.header + extensions.auth / Ipv6Slice.header / ArpPacketSlice / UdpSlice /
   TcpSlice::to_header (header_len, slice) / Icmpv4Slice / Icmpv6Slice).  Equality of `res` values:
   both sides are the same Ok value (or would fail alike).  The struct Ipv6Extensions is the
   subject of C04_ipv6_exts_to_header below.  Proofs: Parse/HdrVal.v (definitions),
   HdrValStruct.v, HdrValProofs.v; only existing models are composed. *)
From EP Require Import Parse.HdrVal Parse.HdrValStruct Parse.HdrValProofs.

Theorem C04_header_slices_hold_input : forall bs et,
  slices_hold bs (PacketHeaders.from_ethernet_slice bs) /\
  slices_hold bs (PacketHeaders.from_ether_type et bs) /\
  slices_hold bs (PacketHeaders.from_ip_slice bs).
Proof. exact hdr_slices_hold. Qed.
Print Assumptions C04_header_slices_hold_input.
Check (eq_refl : slices_hold =
  fun bs h => forall hp, h = Ok hp -> Forall (in_win bs) (hp_slices hp)).
Check (eq_refl : in_win =
  fun bs s => s_off s + s_len s <= len bs /\ snd s = take (s_len s) (drop (s_off s) bs)).
Check (eq_refl : hp_slices = fun p => hp_header_slices p ++ hpayload_slices (h_payload p)).
Check (eq_refl : hp_header_slices =
  fun p => olist (h_link p) ++ map hext_slice (h_exts p) ++
           match h_net p with Some n => hnet_slices n | None => [] end ++
           olist (option_map htr_slice (h_transport p))).
Check (eq_refl : hnet_slices =
  fun n => match n with
           | HnArp a => [a]
           | HnIp (IhV4 h a) => h :: olist a
           | HnIp (IhV6 h x) => h :: exts6_slices x
           end).
Check (eq_refl : exts6_slices =
  fun x => olist (x_hbh x) ++ olist (x_dest x) ++ olist (x_route x) ++ olist (x_fdest x) ++
           olist (x_frag x) ++ olist (x_auth x)).

Theorem C04_header_values_eq_slices : forall bs et, bytes_ok bs ->
  vals_agree (PacketHeaders.from_ethernet_slice bs) (Cut.from_ethernet true bs) /\
  vals_agree (PacketHeaders.from_ether_type et bs) (Cut.from_ether_type true et bs) /\
  vals_agree (PacketHeaders.from_ip_slice bs) (Cut.from_ip true bs).
Proof. exact hdr_vals_eq. Qed.
Print Assumptions C04_header_values_eq_slices.
Check (eq_refl : vals_agree =
  fun h s => forall hp sp, h = Ok hp -> s = Ok sp -> hvals_of_h hp = hvals_of_s sp).
Check (eq_refl : hvals_of_h =
  fun p => mkVals (option_map (fun h => Ethernet2A.to_header (mkEth2 0 h)) (h_link p))
                  (map hval_ext (h_exts p)) (option_map hval_net (h_net p))
                  (option_map hval_tr (h_transport p))).
Check (eq_refl : hvals_of_s =
  fun p => mkVals (match sp_link p with Some l => sval_link l | None => None end)
                  (map sval_ext (sp_exts p)) (option_map sval_net (sp_net p))
                  (option_map sval_tr (sp_transport p))).
Check (eq_refl : hval_tr =
  fun t => match t with
           | HtUdp h => TvUdp (UdpA.to_header h)
           | HtTcp h => TvTcp (TcpHeaderSliceA.to_header h)
           | HtIcmpv4 h => TvIcmpv4 (Icmpv4A.header h)
           | HtIcmpv6 h => TvIcmpv6 (Icmpv6A.header h)
           end).
Check (eq_refl : sval_tr =
  fun t => match t with
           | TrUdp s => TvUdp (UdpA.to_header s)
           | TrTcp hl s => TvTcp (TcpSliceA.to_header (hl, s))
           | TrIcmpv4 s => TvIcmpv4 (Icmpv4A.header s)
           | TrIcmpv6 s => TvIcmpv6 (Icmpv6A.header s)
           end).

(* non-vacuity: the F5 packet (Ethernet / VLAN / IPv4 / UDP): both results exist, the slices of
   the struct result are the windows 0+14, 14+4, 18+20, 38+8, 46+0, and the values are the decoded
   fields (addresses, ether types 0x8100 / 0x0800, VLAN id 5, TTL 64, protocol 17, ports 1 -> 2) *)
Example C04_ex_values :
  bytes_ok ex_f5 /\
  exists hp sp,
    PacketHeaders.from_ethernet_slice ex_f5 = Ok hp /\ Cut.from_ethernet true ex_f5 = Ok sp /\
    map win_of (hp_slices hp) = [(0, 14); (14, 4); (18, 20); (38, 8); (46, 0)] /\
    hvals_of_s sp =
      mkVals (Some (Ok ([7;8;9;10;11;12], [1;2;3;4;5;6], 33024)))
             [EvVlan (Ok (0, false, 5, 2048))]
             (Some (NvIpv4 (Ok (0, 0, 32, 0, false, false, 0, 64, 17, 0, [1;2;3;4], [5;6;7;8], [])) None))
             (Some (TvUdp (Ok (1, 2, 8, 0)))).
Proof.
  split; [apply bytes_okb_spec; vm_compute; reflexivity|].
  do 2 eexists. split; [vm_compute; reflexivity|]. split; [vm_compute; reflexivity|].
  vm_compute. repeat split.
Qed.

(* The struct Ipv6Extensions.  SlicedPacket -> to_header() converts an Ipv6Slice with
   `IpSlice::to_header`, which re-decodes the stored extension area with the struct decoder
   Ipv6Extensions::from_slice and expects Ok (model: IpSliceToHeaderA.v6_exts_to_header,
   Parse/LaxAccess.v; C01/C02 prove it never fails on a strict Ipv6Slice).
   C04_ipv6_exts_to_header: whenever PacketHeaders.from_* returns an IPv6 network layer (header
   slice hd, struct x), the cut slicing result is Ok with an IPv6 layer v on the same header slice
   and `v6_exts_to_header v = Ok x`: the conversion of the slicing result IS the struct that
   struct decoding returned -- all six slots, as slices (same windows, same bytes), hence the same
   to_header() values slot by slot (`exts6_val`).  With C04_header_values_eq_slices this is header
   VALUE equality for every header of the two strict families, all three entry points.
   Proof: Parse/HdrValExts.v. *)
From EP Require Import Parse.LaxAccess Parse.HdrValExts.

Theorem C04_ipv6_exts_to_header : forall bs et, bytes_ok bs ->
  exts_to_header_agree (PacketHeaders.from_ethernet_slice bs) (Cut.from_ethernet true bs) /\
  exts_to_header_agree (PacketHeaders.from_ether_type et bs) (Cut.from_ether_type true et bs) /\
  exts_to_header_agree (PacketHeaders.from_ip_slice bs) (Cut.from_ip true bs).
Proof. exact hdr_exts_to_header. Qed.
Print Assumptions C04_ipv6_exts_to_header.
Check (eq_refl : exts_to_header_agree =
  fun h s =>
    forall hp hd x, h = Ok hp -> h_net hp = Some (HnIp (IhV6 hd x)) ->
    exists sp v, s = Ok sp /\ sp_net sp = Some (NtIpv6 v) /\ v6_header v = hd /\
                 IpSliceToHeaderA.v6_exts_to_header v = Ok x).

(* the struct decoder on a prefix of its input that contains everything it consumed *)
Theorem C04_ipv6_struct_decoder_prefix : forall nh0 hp x nh' r u I,
  Ipv6Extensions.from_slice nh0 hp = Ok (x, nh', r) -> pre u I hp -> s_len hp - s_len r <= u ->
  exists rI, Ipv6Extensions.from_slice nh0 I = Ok (x, nh', rI).
Proof. exact struct_exts_pre. Qed.
Print Assumptions C04_ipv6_struct_decoder_prefix.

(* non-vacuity: the packets of C04_ex_slots (five extension headers, all slots but hop-by-hop
   filled) and of C04_ex_exception (stopped in front of a second fragment header) *)
Example C04_ex_exts_to_header :
  (exists hp hd x sp v,
     PacketHeaders.from_ip_slice ex_order = Ok hp /\ h_net hp = Some (HnIp (IhV6 hd x)) /\
     Cut.from_ip true ex_order = Ok sp /\ sp_net sp = Some (NtIpv6 v) /\
     IpSliceToHeaderA.v6_exts_to_header v = Ok x /\
     slot_wins x = [None; Some (48, 8); Some (56, 8); Some (64, 8); Some (40, 8); Some (72, 12)] /\
     xv_frag (exts6_val x) = Some (Ok (60, 0, false, 0))) /\
  (exists hp hd x sp v,
     PacketHeaders.from_ip_slice ex_dup = Ok hp /\ h_net hp = Some (HnIp (IhV6 hd x)) /\
     Cut.from_ip true ex_dup = Ok sp /\ sp_net sp = Some (NtIpv6 v) /\
     stopped_at_ext (Ok sp) = true /\
     IpSliceToHeaderA.v6_exts_to_header v = Ok x /\
     slot_wins x = [None; None; None; None; Some (40, 8); None]).
Proof.
  split; do 5 eexists.
  - split; [vm_compute; reflexivity|]. split; [reflexivity|]. split; [vm_compute; reflexivity|].
    split; [reflexivity|]. split; [vm_compute; reflexivity|]. vm_compute. repeat split.
  - split; [vm_compute; reflexivity|]. split; [reflexivity|]. split; [vm_compute; reflexivity|].
    split; [reflexivity|]. split; [vm_compute; reflexivity|]. vm_compute. repeat split.
Qed.
