(* Builder/ProofsHeaders.v -- property C10, "PacketHeaders on built bytes":
   strict parsing INTO THE HEADER STRUCTS accepts a built packet and returns exactly the configured layers.

   Route (composition, no new model):
     crate_parse_back (ProofsCrate.v)   SlicedPacket::from_* on the built bytes = Ok sp, view sp = expected_x
     C04 hdr_agree_* (HdrProofs3.v)     PacketHeaders::from_* agrees (`hagree`) with the slicing algorithm CUT in
                                        front of a "refilled" IPv6 extension header (Cut.from_* true)
     cut_free (CutFree.v)               the cut result is sp as soon as the extension chain meets no filled slot
     built_exts_indep (here)            that holds for EVERY built configuration: the builder writes the extension
                                        headers in the order hop-by-hop, destination options, routing, fragment,
                                        authentication, final destination options (the last only with a routing
                                        header), each at most once, which never meets a filled slot of the struct
                                        (layout6_norefill: all 48 shapes), and chain_built (ProofsNx.v) gives the
                                        byte-level chain
     conv_of_view (HdrOfView.v)         to_header() of sp as a function of its view

   Result: `headers_parse_back`.  `stopped_at_ext = false` for every built configuration the message type
   admits (`built_not_stopped`): struct decoding never stops early on a built packet. *)
From EP Require Import Base.Bytes Checksum.Spec Checksum.Model Checksum.Proofs.
From EP Require Import Checksum.ProtoTypes Checksum.ProtoSpec.
From EP Require Import Roundtrip.Common Roundtrip.CommonProofs.
From EP Require Roundtrip.Spec Roundtrip.Tcp Roundtrip.Ipv4.
From EP Require CtlMsg.Spec CtlMsg.Model Roundtrip.Icmp4 Roundtrip.Icmp6.
From EP Require ExtChain.Spec ExtChain.Model ExtChain.View ExtChain.Proofs BitFields.Model.
From EP Require Import Parse.Types Parse.Slices Parse.Cursor Parse.View Parse.WireSpec
  Parse.HdrModel Parse.HdrView Parse.HdrCut.
From EP Require Parse.StrictProofs Parse.AccessProofs Parse.HdrProofs Parse.HdrProofs3.
From EP Require Builder.CutFree Builder.HdrOfView.
From EP Require Import Builder.Model Builder.Spec Builder.Proofs Builder.ProofsCk Builder.SpecX Builder.ProofsTr
  Builder.ProofsNx Builder.ProofsWire Builder.ProofsPb Builder.ProofsEx Builder.ProofsCrate.
From Coq Require Import ZArith Lia ZifyN ZifyBool List.
Import ListNotations.
Local Open Scope N_scope.

Module CF := EP.Builder.CutFree.
Module HV := EP.Builder.HdrOfView.
Module AP := EP.Parse.AccessProofs.
Module H3 := EP.Parse.HdrProofs3.

(* the ICMPv4 header length as the PARSER determines it (first two octets of the message): a raw
   Unknown{type 13 or 14, code 0} is read as a timestamp message *)
Definition icmp4_parsed_hl (c : cfg) : N :=
  match c_transport c with
  | TrIcmpv4 t =>
      if ((fst (icmp4_tc t) =? 13) || (fst (icmp4_tc t) =? 14)) && (0 =? snd (icmp4_tc t)) then 20 else 8
  | _ => 8
  end.

(* header windows of every configured layer + the innermost payload, derived from the expected view *)
Definition hexpected (c : cfg) (plen : N) : hview := HV.hv_of_view (icmp4_parsed_hl c) (expected_x c plen).

(* the struct-family entry point that matches the link layer of the builder (PacketHeaders has no
   Linux cooked capture entry point) *)
Definition hdr_entry (c : cfg) (bs : bytes) : option (res hpacket) :=
  match c_link c with
  | LkEthernet2 _ _ => Some (PacketHeaders.from_ethernet_slice bs)
  | LkNone => Some (PacketHeaders.from_ip_slice bs)
  | LkLinuxSll _ _ _ => None
  end.

(* two views with the same layers behind the link header *)
Definition same_layers (a b : vpacket) : Prop :=
  HV.link_hdr (v_link a) = HV.link_hdr (v_link b) /\ v_exts a = v_exts b /\ v_net a = v_net b /\
  v_transport a = v_transport b.

Lemma hv_same_layers hl a b : same_layers a b -> HV.hv_of_view hl a = HV.hv_of_view hl b.
Proof. intros (A & B' & C & D). unfold HV.hv_of_view. now rewrite A, B', C, D. Qed.

Lemma layout6_norefill x : CF.norefill fill_none (HV.kinds (ext_layout6_full x)) = true.
Proof. destruct x as [[h|] [d|] [[rt [fd|]]|] [fr|] [a|]]; reflexivity. Qed.

Lemma final_not_ext n : final_number n -> is_ext_number n = false /\ n <> IPN_HOP_BY_HOP.
Proof.
  intros (F0 & F60 & F43 & F44 & F51). split; [|exact F0].
  unfold is_ext_number. change IPN_DEST_OPTIONS with 60. change IPN_ROUTE with 43.
  change IPN_FRAG with 44. change IPN_AUTH with 51.
  rewrite !orb_false_iff. repeat split; apply N.eqb_neq; assumption.
Qed.

Lemma built_exts_indep e c p bs et sp :
  cfg_wf c = true -> payload_admitted c (len p) = true -> build e c p = BOk bs ->
  AP.entry bs et sp -> same_layers (view sp) (expected_x c (len p)) ->
  CF.exts_indep sp.
Proof.
  intros WF PA E EN (_ & _ & VN & _). destruct (cfg_wf_inv c WF) as (WL & WV & WN & WT & WS).
  pose proof (build_size e c p bs WF E) as SZ.
  unfold view, expected_x in VN. cbv zeta in VN. cbn [v_net] in VN. unfold exp_net_x in VN. cbv zeta in VN.
  destruct (c_net c) as [h x|h x|a] eqn:ENet.
  - intros v nh hp Hnet. rewrite Hnet in VN. discriminate VN.
  - pose proof (admitted_number c (len p) WT PA) as AN. rewrite ENet in AN. destruct AN as (FN & CP).
    pose proof (chain_built e c p bs WF E CP) as CB. rewrite ENet in CB.
    unfold ext_layout_full, ip_next_field_off, off_exts, ip_header_len in CB. rewrite ENet in CB.
    destruct (final_not_ext _ FN) as (FE & F0).
    apply (HV.exts_indep_of_chain bs sp (off_net c) (ext_layout6_full x) (tr_ip_number (c_transport c))).
    + exact (AP.sliced_wf_entry bs et sp EN).
    + intros v Hnet. rewrite Hnet in VN. cbn [option_map view_net] in VN.
      assert (V1 : win_of (v6_header v) = (off_net c, 40)) by congruence.
      assert (V4 : win_of (x6_slice (v6_exts v)) = (off_exts c, XM.header_len x)) by congruence.
      rewrite layout6_sum. unfold off_exts, ip_header_len in V4. rewrite ENet in V4. split; assumption.
    + exact CB.
    + apply layout6_norefill.
    + exact FE.
    + exact F0.
  - intros v nh hp Hnet. rewrite Hnet in VN. discriminate VN.
Qed.

(* type and code octets of a built ICMPv4 message *)
Lemma icmp4_built_tc e c p bs k : cfg_wf c = true -> build e c p = BOk bs ->
  c_transport c = TrIcmpv4 k -> (forall a, c_net c <> NtArp a) ->
  B bs (off_transport c) = fst (icmp4_tc k) /\ B bs (off_transport c + 1) = snd (icmp4_tc k) /\
  off_transport c + 8 <= len bs.
Proof.
  intros WF E ET NA. destruct (icmp4_segment e c p bs k WF E ET NA) as (ck & _ & _ & DR).
  destruct (icmp4_fields k ck p) as [T0 T1]. pose proof (icmp4_hl_bounds k) as HB.
  pose proof (seg_len e c p bs WF E NA) as LB. rewrite ET in LB. cbn [tr_header_len] in LB.
  split; [|split; [|lia]].
  - replace (off_transport c) with (off_transport c + 0) by lia. rewrite <- B_drop, DR. exact T0.
  - rewrite <- B_drop, DR. exact T1.
Qed.

Lemma built_conv e c p bs et sp :
  cfg_wf c = true -> build e c p = BOk bs ->
  AP.entry bs et sp -> same_layers (view sp) (expected_x c (len p)) ->
  conv sp = Ok (hexpected c (len p)).
Proof.
  intros WF E EN SL. pose proof SL as (_ & _ & VN & VT).
  pose proof (build_size e c p bs WF E) as SZ.
  unfold hexpected. rewrite <- (hv_same_layers _ _ _ SL). apply HV.conv_of_view.
  - unfold view, expected_x in VN. cbv zeta in VN. cbn [v_net] in VN. intros Hn. rewrite Hn in VN.
    unfold exp_net_x in VN. cbv zeta in VN. destruct (c_net c); discriminate VN.
  - intros s Ht. unfold view, expected_x in VT. cbv zeta in VT. cbn [v_transport] in VT. rewrite Ht in VT.
    cbn [option_map view_tr] in VT.
    assert (G : exists k, c_transport c = TrIcmpv4 k /\ (forall a, c_net c <> NtArp a) /\
                  win_of s = (off_transport c, final_size c (len p) - off_transport c)).
    { destruct (c_net c) as [h x|h x|a]; try discriminate VT;
        (destruct (is_fragmented_x c); [discriminate VT|]);
        unfold exp_transport in VT; cbv zeta in VT;
        destruct (c_transport c) as [n|sp' dp|t|k|k]; try discriminate VT;
        exists k; (split; [reflexivity|]); (split; [intros a0 X; discriminate X|congruence]). }
    destruct G as (k & ET & NA & Ws).
    destruct (icmp4_built_tc e c p bs k WF E ET NA) as (T0 & T1 & LB).
    pose proof (AP.sliced_wf_entry bs et sp EN) as Wf.
    pose proof (HV.icmp4_in_buf bs sp s Wf Ht) as Is.
    unfold win_of in Ws. injection Ws as Wo Wl.
    rewrite (HV.icmp4_hl_in_buf bs s Is) by (rewrite Wl, <- SZ; lia).
    rewrite Wo, T0, T1. unfold icmp4_parsed_hl. rewrite ET. reflexivity.
Qed.

Lemma same_layers_refl a : same_layers a a.
Proof. repeat split. Qed.

Theorem headers_parse_back e c p bs :
  cfg_wf c = true -> bytes_ok p -> payload_admitted c (len p) = true -> build e c p = BOk bs ->
  (forall r, hdr_entry c bs = Some r -> hvres_of_h r = HOk (hexpected c (len p))) /\
  (c_link c = LkNone ->
   hvres_of_h (PacketHeaders.from_ether_type (net_ether_type (c_net c)) bs) = HOk (hexpected c (len p))).
Proof.
  intros WF OKP PA E. pose proof (build_bytes_ok e c p bs WF OKP E) as OKB.
  destruct (crate_parse_back e c p bs WF OKP PA E) as (sp & ES & VS).
  assert (SL : same_layers (view sp) (expected_x c (len p))) by (rewrite VS; apply same_layers_refl).
  split.
  - intros r Hr. unfold hdr_entry in Hr. unfold crate_entry in ES.
    destruct (c_link c) as [|s d|pt vl a] eqn:EL; [| |discriminate Hr]; injection Hr as <-.
    + (* no link header: from_ip_slice *)
      assert (EN : AP.entry bs 0 sp) by (right; right; right; exact ES).
      pose proof (built_exts_indep e c p bs 0 sp WF PA E EN SL) as XI.
      pose proof (built_conv e c p bs 0 sp WF E EN SL) as CV.
      destruct (CF.cut_free bs 0) as (_ & _ & C3). pose proof (C3 sp ES XI) as CT.
      assert (Hf : H3.F11 bs = false).
      { destruct (H3.F11 bs) eqn:Hf; [|reflexivity]. destruct (H3.hdr_f11_both_err bs Hf) as (_ & A).
        destruct (A true) as (er & A'). rewrite A' in CT. discriminate CT. }
      exact (HV.hagree_ok_view _ _ sp _ (H3.hdr_agree_ip bs OKB Hf) CT CV).
    + (* Ethernet II: from_ethernet_slice *)
      assert (EN : AP.entry bs 0 sp) by (left; exact ES).
      pose proof (built_exts_indep e c p bs 0 sp WF PA E EN SL) as XI.
      pose proof (built_conv e c p bs 0 sp WF E EN SL) as CV.
      destruct (CF.cut_free bs 0) as (C1 & _). pose proof (C1 sp ES XI) as CT.
      exact (HV.hagree_ok_view _ _ sp _ (H3.hdr_agree_ethernet bs OKB) CT CV).
  - intros EL. clear sp ES VS SL.
    destruct (crate_parse_back_ether_type e c p bs WF OKP PA E EL) as (sp & ES & VS). cbv zeta in VS.
    set (et := net_ether_type (c_net c)) in *.
    assert (SL : same_layers (view sp) (expected_x c (len p))).
    { rewrite VS. unfold same_layers. cbn [v_link v_exts v_net v_transport].
      unfold expected_x. cbv zeta. cbn [v_link]. unfold exp_link. rewrite EL. repeat split. }
    assert (EN : AP.entry bs et sp) by (right; right; left; exact ES).
    pose proof (built_exts_indep e c p bs et sp WF PA E EN SL) as XI.
    pose proof (built_conv e c p bs et sp WF E EN SL) as CV.
    destruct (CF.cut_free bs et) as (_ & C2 & _). pose proof (C2 sp ES XI) as CT.
    exact (HV.hagree_ok_view _ _ sp _ (H3.hdr_agree_ether_type et bs OKB) CT CV).
Qed.

(* struct decoding never stops early on a built packet: the slicing algorithm cut at a refilled extension
   header IS the slicing algorithm, and its result does not announce an extension header as payload *)
Theorem built_not_stopped e c p bs :
  cfg_wf c = true -> bytes_ok p -> payload_admitted c (len p) = true -> build e c p = BOk bs ->
  match c_link c with
  | LkEthernet2 _ _ =>
      Cut.from_ethernet true bs = SlicedPacket.from_ethernet bs /\
      stopped_at_ext (Cut.from_ethernet true bs) = false
  | LkNone =>
      Cut.from_ip true bs = SlicedPacket.from_ip bs /\ stopped_at_ext (Cut.from_ip true bs) = false /\
      Cut.from_ether_type true (net_ether_type (c_net c)) bs =
        SlicedPacket.from_ether_type (net_ether_type (c_net c)) bs /\
      stopped_at_ext (Cut.from_ether_type true (net_ether_type (c_net c)) bs) = false
  | LkLinuxSll _ _ _ => True
  end.
Proof.
  intros WF OKP PA E. destruct (cfg_wf_inv c WF) as (WL & WV & WN & WT & WS).
  assert (NS : forall sp, same_layers (view sp) (expected_x c (len p)) -> stopped_at_ext (Ok sp) = false).
  { intros sp (_ & _ & VN & _). unfold stopped_at_ext.
    destruct (sp_net sp) as [[v|v|a]|] eqn:Hn; try reflexivity.
    unfold view, expected_x in VN. cbv zeta in VN. cbn [v_net] in VN. rewrite Hn in VN.
    unfold exp_net_x in VN. cbv zeta in VN.
    destruct (c_net c) as [h x|h x|a] eqn:ENet; try discriminate VN.
    cbn [option_map view_net] in VN.
    match type of VN with Some (VIpv6 _ _ _ _ ?pa) = Some (VIpv6 _ _ _ _ ?pb) =>
      assert (VP : pa = pb) by congruence end.
    apply (f_equal vip_number) in VP. cbn [view_ipp vip_number] in VP. rewrite VP.
    pose proof (admitted_number c (len p) WT PA) as AN. rewrite ENet in AN. destruct AN as (FN & _).
    now destruct (final_not_ext _ FN). }
  destruct (c_link c) as [|s d|pt vl a] eqn:EL; [| |exact I].
  - destruct (crate_parse_back e c p bs WF OKP PA E) as (sp & ES & VS). unfold crate_entry in ES. rewrite EL in ES.
    assert (SL : same_layers (view sp) (expected_x c (len p))) by (rewrite VS; apply same_layers_refl).
    assert (EN : AP.entry bs 0 sp) by (right; right; right; exact ES).
    destruct (CF.cut_free bs 0) as (_ & _ & C3).
    rewrite (C3 sp ES (built_exts_indep e c p bs 0 sp WF PA E EN SL)), ES.
    split; [reflexivity|]. split; [now apply NS|].
    destruct (crate_parse_back_ether_type e c p bs WF OKP PA E EL) as (sp2 & ES2 & VS2). cbv zeta in VS2.
    set (et := net_ether_type (c_net c)) in *.
    assert (SL2 : same_layers (view sp2) (expected_x c (len p))).
    { rewrite VS2. unfold same_layers. cbn [v_link v_exts v_net v_transport].
      unfold expected_x. cbv zeta. cbn [v_link]. unfold exp_link. rewrite EL. repeat split. }
    assert (EN2 : AP.entry bs et sp2) by (right; right; left; exact ES2).
    destruct (CF.cut_free bs et) as (_ & C2 & _).
    rewrite (C2 sp2 ES2 (built_exts_indep e c p bs et sp2 WF PA E EN2 SL2)), ES2.
    split; [reflexivity|now apply NS].
  - destruct (crate_parse_back e c p bs WF OKP PA E) as (sp & ES & VS). unfold crate_entry in ES. rewrite EL in ES.
    assert (SL : same_layers (view sp) (expected_x c (len p))) by (rewrite VS; apply same_layers_refl).
    assert (EN : AP.entry bs 0 sp) by (left; exact ES).
    destruct (CF.cut_free bs 0) as (C1 & _).
    rewrite (C1 sp ES (built_exts_indep e c p bs 0 sp WF PA E EN SL)), ES.
    split; [reflexivity|now apply NS].
Qed.
