(* Builder/ProofsVal.v -- property C10: the VALUES behind the windows of the
   parse-back theorem.  Every layer of a built packet is the encoding of the configured
   struct with its derived fields set (link / VLAN / ARP encoders of Builder/Model.v and
   C15, extension chains in the RFC wire formats of C12), the crate's extension-header
   decoders (C12 models) give the configured extension headers back, and the bytes from
   off_payload on are exactly the payload. *)
From EP Require Import Base.Bytes Checksum.Model.
From EP Require Import Roundtrip.Common Roundtrip.CommonProofs.
From EP Require Roundtrip.Tcp Roundtrip.Ipv4 Roundtrip.Ipv4Proofs.
From EP Require ExtChain.Spec ExtChain.Model ExtChain.View ExtChain.Proofs BitFields.Model.
From EP Require Import Builder.Model Builder.Spec Builder.Proofs Builder.ProofsCk Builder.SpecX Builder.ProofsTr
  Builder.ProofsNx.
From Coq Require Import ZArith Lia ZifyN ZifyBool.
Local Open Scope N_scope.

Theorem layers_as_configured e c p bs : cfg_wf c = true -> build e c p = BOk bs ->
  let n := tr_ip_number (c_transport c) in
  take (link_len c) bs = link_bytes c /\
  take (vlan_len c) (drop (off_vlan c) bs) = vlan_bytes c /\
  match c_net c with
  | NtIpv4 h x =>
      let s := XM.set_next_headers4 x n in
      take (XM.header_len4 x) (drop (off_exts c) bs) = XV.rfc_order_bytes4 (fst s) /\
      (n <> 51 ->
       XM.from_slice4 (snd s) (take (XM.header_len4 x) (drop (off_exts c) bs)) = XM.Ok (fst s, n, []))
  | NtIpv6 h x =>
      chain_pre c = true ->
      let s := XM.set_next_headers x n in
      take (XM.header_len x) (drop (off_exts c) bs) = XV.rfc_order_bytes (fst s) /\
      XM.from_slice (snd s) (take (XM.header_len x) (drop (off_exts c) bs)) = XM.Ok (fst s, n, [])
  | NtArp a => take (arp_packet_len a) (drop (off_net c) bs) = arp_to_bytes a
  end /\
  drop (off_payload c) bs = p /\ off_payload c + len p = len bs.
Proof.
  intros WF E. cbv zeta. destruct (cfg_wf_inv c WF) as (WL & WV & WN & WT & WS).
  pose proof (tr_ip_number_lt _ WT) as NL.
  pose proof (build_size e c p bs WF E) as LEN.
  destruct (build_inv e c p bs WF E) as (nb & xb & tb & EB & P).
  destruct (built_offsets e c p nb xb tb bs WL P EB) as (DV & DN & DX & _ & DP).
  destruct P as (LN & LX & LT & P).
  split; [rewrite EB; apply take_app_len; symmetry; apply link_bytes_len; exact WL|].
  split; [rewrite DV; apply take_app_len; symmetry; apply vlan_bytes_len|].
  split; [|split; [exact DP|unfold off_payload, off_transport, off_net, final_size in *; lia]].
  rewrite DX, DN. unfold chain_pre, ip_header_len, net_len in *.
  destruct (c_net c) as [h x|h x|a]; cbn [net_wf] in WN.
  - apply andb_true_iff in WN. destruct WN as [WH WX]. destruct P as (_ & EWR & _).
    rewrite (take_app_len xb) by lia.
    pose proof (XP.link_write_order4 x (tr_ip_number (c_transport c)) WX) as WO.
    rewrite WO in EWR. injection EWR as EX.
    split; [symmetry; exact EX|]. intros N51.
    destruct (snh4_facts x _ WX NL) as (V1 & _ & _).
    apply (XP.decode_write4 _ _ xb _ V1).
    + rewrite WO, EX. reflexivity.
    + apply XP.link_walks4.
    + unfold XS.is_ext_number_v4. apply N.eqb_neq. exact N51.
  - apply andb_true_iff in WN. destruct WN as [WH WX]. destruct P as (_ & EWR & _).
    rewrite (take_app_len xb) by lia.
    intros CP. apply negb_true_iff in CP.
    pose proof (XP.link_write_order x (tr_ip_number (c_transport c)) WX CP) as WO.
    rewrite WO in EWR. injection EWR as EX. split; [symmetry; exact EX|].
    destruct (XP.set_next_headers_facts x _ WX NL) as (V1 & _ & _).
    apply (XP.decode_write _ _ xb _ V1).
    + rewrite WO, EX. reflexivity.
    + apply XP.link_walks. exact CP.
    + exact CP.
  - destruct P as (-> & _). apply take_app_len. symmetry. exact LN.
Qed.
