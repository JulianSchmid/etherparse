(* Builder/ProofsTr.v -- property C10: the UDP / TCP / ICMPv4 / ICMPv6 checksums of a
   built packet verify, and the transport header is the RFC layout of the configured one.  Route: (1) the call the builder makes is
   TransportHeader::update_checksum_ipv4/_ipv6 of C09 (Checksum/Proto.v) on exactly the
   header it serialises afterwards and the payload it appends; (2) C09 gives the
   stored value = rfc1071 (pseudo header ++ header with zero field ++ payload);
   (3) RFC 1071 arithmetic: a field filled with that value makes the receiver's sum
   fold to 0xffff. *)
From EP Require Import Base.Bytes Checksum.Spec Checksum.Model Checksum.Proofs.
From EP Require Import Checksum.ProtoTypes Checksum.ProtoSpec.
From EP Require Checksum.Proto Checksum.ProtoProofs.
From EP Require Import Roundtrip.Common Roundtrip.CommonProofs Roundtrip.LinkNetLemmas.
From EP Require Roundtrip.Tcp Roundtrip.TcpProofs Roundtrip.Ipv4 Roundtrip.Ipv4Proofs.
From EP Require CtlMsg.Spec Roundtrip.Icmp4 Roundtrip.Icmp6 Roundtrip.Icmp4Proofs Roundtrip.Icmp6Proofs.
From EP Require ExtChain.Spec ExtChain.Model ExtChain.Proofs BitFields.Model.
From EP Require Import Parse.WireSpec.
From EP Require Import Builder.Model Builder.Spec Builder.Proofs Builder.ProofsCk Builder.SpecX.
From Coq Require Import ZArith Lia ZifyN ZifyBool.
Local Open Scope N_scope.

Module CP := EP.Checksum.Proto.
Module CPP := EP.Checksum.ProtoProofs.

Lemma B_app_r (a b : bytes) i : len a <= i -> B (a ++ b) i = B b (i - len a).
Proof.
  intros H. unfold B, len in *. rewrite app_nth2 by lia. f_equal. lia.
Qed.
Lemma B_app_l (a b : bytes) i : i < len a -> B (a ++ b) i = B a i.
Proof. intros H. unfold B, len in *. apply app_nth1. lia. Qed.
Lemma B_drop (bs : bytes) k i : B (drop k bs) i = B bs (k + i).
Proof.
  unfold B, drop. rewrite <- (firstn_skipn (N.to_nat k) bs) at 2.
  destruct (Nat.le_gt_cases (length bs) (N.to_nat k)) as [L|L].
  - rewrite skipn_all2 by exact L. rewrite firstn_all2 by exact L. rewrite app_nil_r.
    rewrite nth_overflow by (cbn; lia). rewrite nth_overflow by lia. reflexivity.
  - rewrite app_nth2; rewrite firstn_length_le by lia; [|lia]. f_equal. lia.
Qed.
Lemma W_drop (bs : bytes) k i : W (drop k bs) i = W bs (k + i).
Proof. unfold W. rewrite !B_drop. rewrite N.add_assoc. reflexivity. Qed.
Lemma B_cons0 a (l : bytes) : B (a :: l) 0 = a. Proof. reflexivity. Qed.
Lemma B_consS a (l : bytes) i : 0 < i -> B (a :: l) i = B l (i - 1).
Proof.
  intros H. unfold B. replace (N.to_nat i) with (S (N.to_nat (i - 1))) by lia. reflexivity.
Qed.

Lemma sum_w16 v : v < 65536 -> sum_be16 (u16_to_be v) = v.
Proof. apply sum_u16. Qed.

Lemma filled_verifies pre tl ck : even_len pre ->
  (ck = rfc1071 (pre ++ [0; 0] ++ tl) \/ ck = no_zero (rfc1071 (pre ++ [0; 0] ++ tl))) ->
  ck < 65536 /\ folds_to_ffff (pre ++ u16_to_be ck ++ tl) = true.
Proof.
  intros E H. set (r := rfc1071 (pre ++ [0; 0] ++ tl)) in *.
  assert (R : r <= 65535) by (subst r; apply rfc1071_le).
  assert (L : ck < 65536) by (destruct H as [-> | ->]; [lia|unfold no_zero; destruct (r =? 0); lia]).
  split; [exact L|]. apply verifies_of_stored; [exact E|exact L|].
  assert (S : r = 65535 - fold16 (sum_be16 pre + sum_be16 tl)).
  { subst r. unfold rfc1071. rewrite sum_be16_app by exact E.
    rewrite (sum_be16_app [0; 0]) by reflexivity. cbn [sum_be16]. f_equal; f_equal; lia. }
  pose proof (fold16_range (sum_be16 pre + sum_be16 tl)) as FR.
  destruct H as [H|H]; [left; rewrite H; exact S|].
  (* UDP transmits a computed 0 as 0xffff, which verifies as well *)
  unfold no_zero in H. destruct (N.eqb_spec r 0) as [Z|Z].
  - right. split; [exact H|]. lia.
  - left. rewrite H. exact S.
Qed.

(* taking the field out of a segment: zero16_at *)
Lemma zero16_at_app (a tl : bytes) x y k : k = len a ->
  zero16_at k (a ++ x :: y :: tl) = a ++ [0; 0] ++ tl.
Proof.
  intros ->. unfold zero16_at. rewrite take_app_exact.
  replace (a ++ x :: y :: tl) with ((a ++ [x; y]) ++ tl) by (rewrite <- app_assoc; reflexivity).
  rewrite drop_app_len; [reflexivity|]. rewrite len_app. reflexivity.
Qed.

Lemma u32_digits v : u32_to_be v = to_be32 v.
Proof. unfold u32_to_be, to_be32. rewrite !N.div_div by lia. reflexivity. Qed.
Lemma p4be_P4w v : p4be v = CP.P4w v.
Proof. unfold p4be, CP.P4w. rewrite !N.div_div by lia. reflexivity. Qed.

Lemma tcp_hdr_of_ok t : Tcp.wf_tcp t = true -> tcp_hdr_ok (tcp_hdr_of t).
Proof.
  intros W. destruct (TcpProofs.wf_tcp_facts t W) as (H1 & H2 & H3 & H4 & H5 & H6 & H7 & WO).
  destruct (TcpProofs.opt_wf_facts _ WO) as (OL & OM & BL & BO).
  unfold tcp_hdr_ok, tcp_hdr_of. cbn [t_sport t_dport t_seq t_ack_no t_window t_urgent t_options].
  rewrite (TcpProofs.len_take_opts t W).
  repeat split; try assumption. apply bytes_ok_take. exact BO.
Qed.

Lemma tcp_header_len_of t : Tcp.wf_tcp t = true -> tcp_header_len (tcp_hdr_of t) = Tcp.header_len t.
Proof.
  intros W. unfold tcp_header_len, Tcp.header_len, tcp_hdr_of. cbn [t_options].
  rewrite (TcpProofs.len_take_opts t W). reflexivity.
Qed.

Lemma tcp_byte12_of t : Tcp.wf_tcp t = true -> CP.tcp_byte12 (tcp_hdr_of t) = Tcp.byte12 t.
Proof.
  intros W. destruct (TcpProofs.wf_tcp_facts t W) as (_ & _ & _ & _ & _ & _ & _ & WO).
  destruct (TcpProofs.opt_wf_facts _ WO) as (OL & _).
  unfold CP.tcp_byte12, CP.tcp_data_offset_m, Tcp.byte12, Tcp.data_offset, Tcp.opt_data_offset, tcp_hdr_of.
  cbn [t_options t_ns]. rewrite (TcpProofs.len_take_opts t W).
  assert (E : CP.as_u8 (Tcp.o_len (Tcp.options t)) = Tcp.o_len (Tcp.options t))
    by (unfold CP.as_u8; apply N.mod_small; lia).
  rewrite !E. reflexivity.
Qed.
Lemma tcp_byte13_of t : CP.tcp_byte13 (tcp_hdr_of t) = Tcp.byte13 t.
Proof. reflexivity. Qed.

(* the call sequence of the builder model is the one of C09 *)
Lemma tcp_post_of t p : Tcp.wf_tcp t = true ->
  tcp_post t (take (Tcp.o_len (Tcp.options t)) (Tcp.o_buf (Tcp.options t))) p
  = CP.tcp_post_ip (tcp_hdr_of t) p.
Proof.
  intros W. unfold tcp_post, CP.tcp_post_ip. rewrite (tcp_byte12_of t W), tcp_byte13_of.
  rewrite !p4be_P4w. reflexivity.
Qed.

(* what the builder serialises is the RFC 9293 layout of that header *)
Lemma tcp_wire_of t ck : Tcp.wf_tcp t = true -> ck < 65536 ->
  Tcp.fixed_bytes (tcp_set_checksum t ck) ++ take (Tcp.o_len (Tcp.options t)) (Tcp.o_buf (Tcp.options t))
  = tcp_wire (tcp_hdr_of t) ck.
Proof.
  intros W L. pose proof (wf_tcp_set_checksum t ck W L) as W2.
  pose proof (TcpProofs.tcp_spec _ W2) as S. rewrite (TcpProofs.to_bytes_wf _ W2) in S.
  apply Some_inj in S. cbn [tcp_set_checksum Tcp.options] in S. rewrite S. clear S.
  unfold Spec.tcp_layout, tcp_wire, tcp_data_offset, tcp_hdr_of.
  cbn [tcp_set_checksum Tcp.source_port Tcp.destination_port Tcp.sequence_number Tcp.acknowledgment_number
       Tcp.ns Tcp.fin Tcp.syn Tcp.rst Tcp.psh Tcp.ack Tcp.urg Tcp.ece Tcp.cwr Tcp.window_size Tcp.checksum
       Tcp.urgent_pointer Tcp.options
       t_sport t_dport t_seq t_ack_no t_ns t_fin t_syn t_rst t_psh t_ack t_urg t_ece t_cwr t_window t_urgent
       t_options].
  unfold Spec.field, w16, w32. cbn [to_be app].
  rewrite <- !u32_digits. unfold u32_to_be, to_be16. reflexivity.
Qed.

(* every configured Icmpv4Type / Icmpv6Type: the C08 serialisation (Roundtrip/Icmp4.v,
   Icmp6.v) of the value is the RFC 792 / 4443 / 4861 layout (Checksum/ProtoSpec.v) of
   its C09 counterpart, and the ranges of the Rust field types carry over *)
Lemma c09_icmp4_ok k : icmp4_cfg_wf k = true -> icmp4_ok (c09_icmp4 k).
Proof.
  intros W. destruct k as [ty c b4 b5 b6 b7|id sq|d|rc g0 g1 g2 g3|id sq|tc|pp|m|m].
  - cbn [icmp4_cfg_wf] in W. bsplit W. cbn; tauto.
  - cbn [icmp4_cfg_wf Icmp4.wf_icmp4_type] in W. bsplit W. cbn; tauto.
  - destruct d; cbn [icmp4_cfg_wf Icmp4.wf_icmp4_type] in W; bsplit W; cbn; first [lia | assumption].
  - cbn [icmp4_cfg_wf Icmp4.wf_icmp4_type] in W. bsplit W.
    cbn [c09_icmp4 icmp4_ok]. split; [destruct rc; cbn; lia|].
    unfold ip4_ok, ip4_bytes. repeat (apply bytes_ok_explicit_cons; [assumption|]). apply bytes_ok_nil.
  - cbn [icmp4_cfg_wf Icmp4.wf_icmp4_type] in W. bsplit W. cbn; tauto.
  - destruct tc; cbn; first [lia | reflexivity].
  - destruct pp; cbn [icmp4_cfg_wf Icmp4.wf_icmp4_type] in W; bsplit W; cbn; first [lia | assumption | reflexivity].
  - destruct m as [i s o r x]. cbn [icmp4_cfg_wf Icmp4.wf_icmp4_type] in W. unfold Icmp4.wf_icmp4_ts in W.
    cbn [CtlMsg.Spec.ts_id CtlMsg.Spec.ts_seq CtlMsg.Spec.ts_originate CtlMsg.Spec.ts_receive CtlMsg.Spec.ts_transmit] in W.
    bsplit W. cbn; tauto.
  - destruct m as [i s o r x]. cbn [icmp4_cfg_wf Icmp4.wf_icmp4_type] in W. unfold Icmp4.wf_icmp4_ts in W.
    cbn [CtlMsg.Spec.ts_id CtlMsg.Spec.ts_seq CtlMsg.Spec.ts_originate CtlMsg.Spec.ts_receive CtlMsg.Spec.ts_transmit] in W.
    bsplit W. cbn; tauto.
Qed.

Lemma icmp4_to_bytes_wire k ck :
  Icmp4.icmp4_to_bytes {| Icmp4.icmp4_type := k; Icmp4.icmp4_checksum := ck |} = Some (icmp4_wire (c09_icmp4 k) ck).
Proof.
  destruct k as [ty c b4 b5 b6 b7|id sq|d|rc g0 g1 g2 g3|id sq|tc|pp|m|m]; try reflexivity.
  - destruct d; reflexivity.
  - destruct pp; reflexivity.
  - destruct m as [i s o r x]. cbn [c09_icmp4 icmp4_wire CtlMsg.Spec.ts_id CtlMsg.Spec.ts_seq CtlMsg.Spec.ts_originate CtlMsg.Spec.ts_receive CtlMsg.Spec.ts_transmit].
    unfold w32. rewrite <- !u32_digits. reflexivity.
  - destruct m as [i s o r x]. cbn [c09_icmp4 icmp4_wire CtlMsg.Spec.ts_id CtlMsg.Spec.ts_seq CtlMsg.Spec.ts_originate CtlMsg.Spec.ts_receive CtlMsg.Spec.ts_transmit].
    unfold w32. rewrite <- !u32_digits. reflexivity.
Qed.

Lemma c09_icmp6_ok k : icmp6_cfg_wf k = true -> icmp6_ok (c09_icmp6 k).
Proof.
  intros W. destruct k as [ty c b4 b5 b6 b7|dc|mtu|tc|pc ptr|id sq|id sq| |chl m o lt| |r sl o| ];
    cbn [icmp6_cfg_wf Icmp6.wf_icmp6_type] in W; bsplit W.
  - cbn; tauto.
  - destruct dc; cbn; first [lia | reflexivity].
  - cbn; assumption.
  - destruct tc; cbn; first [lia | reflexivity].
  - destruct pc; cbn; split; first [lia | assumption | reflexivity].
  - cbn; tauto.
  - cbn; tauto.
  - exact I.
  - cbn; tauto.
  - exact I.
  - exact I.
  - exact I.
Qed.

Lemma icmp6_to_bytes_wire k ck :
  Icmp6.icmp6_to_bytes {| Icmp6.icmp6_type := k; Icmp6.icmp6_checksum := ck |} = Some (icmp6_wire (c09_icmp6 k) ck).
Proof.
  destruct k as [ty c b4 b5 b6 b7|dc|mtu|tc|pc ptr|id sq|id sq| |chl m o lt| |r sl o| ]; try reflexivity.
  - cbn [c09_icmp6 icmp6_wire]. unfold w32. rewrite <- !u32_digits. reflexivity.
  - cbn [c09_icmp6 icmp6_wire]. unfold w32. rewrite <- !u32_digits. reflexivity.
  - destruct m, o; reflexivity.
  - destruct r, sl, o; reflexivity.
Qed.

(* the builder calls C09's update_checksum on exactly the header it serialises (th_wire of
   the same value) and the payload it appends *)
Lemma tr_ipv4_is_update e s0 s1 s2 s3 d0 d1 d2 d3 t ul p tb :
  tr_wf t = true -> ul < 65536 ->
  tr_ipv4 e [s0; s1; s2; s3] [d0; d1; d2; d3] t ul p = TOk tb ->
  match th_of t ul with
  | None => tb = [] /\ exists n, t = TrNone n
  | Some th =>
      transport_ok th /\
      exists ck, CP.update_checksum_ipv4 e th (s0, s1, s2, s3) (d0, d1, d2, d3) p = UpdOk ck /\
                 ck < 65536 /\ tb = th_wire th ck
  end.
Proof.
  intros W UL E. destruct t as [n|sp dp|h|k|k]; cbn [tr_ipv4 th_of tr_wf] in *.
  - injection E as E. split; [auto|eauto].
  - bsplit W. split; [unfold transport_ok, udp_hdr_ok; cbn [u_sport u_dport u_length]; tauto|].
    unfold CP.update_checksum_ipv4, CP.udp_calc_checksum_ipv4_raw.
    change (CP.U16MAX - Gen.Consts.UDP_LEN) with 65527.
    destruct (65527 <? len p); [discriminate|]. cbn [p4_of] in E. injection E as E.
    eexists. split; [reflexivity|]. split; [|symmetry; exact E].
    eapply N.le_lt_trans; [apply checksum64_no_zero_le|lia].
  - pose proof (tcp_header_len_le h W) as HL. split; [apply tcp_hdr_of_ok; exact W|].
    rewrite (ltb_false 65535 (Tcp.header_len h)) in E by lia.
    unfold CP.update_checksum_ipv4, CP.tcp_calc_checksum_ipv4_raw.
    change (CP.tcp_header_len_m (tcp_hdr_of h)) with (tcp_header_len (tcp_hdr_of h)).
    rewrite (tcp_header_len_of h W). change CP.U16MAX with 65535.
    destruct (65535 - Tcp.header_len h <? len p); [discriminate|].
    cbn [p4_of] in E. rewrite (TcpProofs.as_slice_wf h W) in E.
    rewrite tcp_finish_ok in E by (try assumption; apply checksum64_le). injection E as E.
    eexists. split; [reflexivity|]. split; [eapply N.le_lt_trans; [apply checksum64_le|lia]|].
    rewrite <- E. rewrite (tcp_post_of h p W).
    rewrite CPP.tcp_header_len_u16_val
      by (rewrite <- (tcp_header_len_of h W) in HL; unfold tcp_header_len in HL; lia).
    rewrite (tcp_header_len_of h W).
    apply tcp_wire_of; [exact W|]. eapply N.le_lt_trans; [apply checksum64_le|lia].
  - unfold icmp4_of. cbn [option_map].
    split; [exact (c09_icmp4_ok k W)|]. unfold icmp4_emit in E. rewrite icmp4_to_bytes_wire in E. injection E as E.
    eexists. split; [reflexivity|].
    split; [unfold CP.icmp4_calc_checksum; eapply N.le_lt_trans; [apply checksum64_le|lia]|].
    symmetry. exact E.
  - discriminate.
Qed.

Lemma tr_ipv6_is_update e s d t ul p tb :
  len s = 16 -> len d = 16 -> tr_wf t = true -> ul < 65536 ->
  tr_ipv6 e s d t ul p = TOk tb ->
  match th_of t ul with
  | None => tb = [] /\ exists n, t = TrNone n
  | Some th =>
      transport_ok th /\
      exists ck, CP.update_checksum_ipv6 e th s d p = UpdOk ck /\ ck < 65536 /\ tb = th_wire th ck
  end.
Proof.
  intros LS LD W UL E. destruct t as [n|sp dp|h|k|k]; cbn [tr_ipv6 th_of tr_wf] in *.
  - injection E as E. split; [auto|eauto].
  - bsplit W. split; [unfold transport_ok, udp_hdr_ok; cbn [u_sport u_dport u_length]; tauto|].
    unfold CP.update_checksum_ipv6, CP.udp_calc_checksum_ipv6_raw.
    change (CP.U32MAX - Gen.Consts.UDP_LEN) with 4294967287.
    destruct (4294967287 <? len p); [discriminate|]. rewrite !p16_of_len in E by assumption. injection E as E.
    eexists. split; [reflexivity|]. split; [|symmetry; exact E].
    eapply N.le_lt_trans; [apply checksum64_no_zero_le|lia].
  - pose proof (tcp_header_len_le h W) as HL. split; [apply tcp_hdr_of_ok; exact W|].
    rewrite (ltb_false 4294967295 (Tcp.header_len h)) in E by lia.
    unfold CP.update_checksum_ipv6, CP.tcp_calc_checksum_ipv6_raw.
    change (CP.tcp_header_len_m (tcp_hdr_of h)) with (tcp_header_len (tcp_hdr_of h)).
    rewrite (tcp_header_len_of h W). change CP.U32MAX with 4294967295.
    destruct (4294967295 - Tcp.header_len h <? len p); [discriminate|].
    rewrite !p16_of_len in E by assumption. rewrite (TcpProofs.as_slice_wf h W) in E.
    rewrite tcp_finish_ok in E by (try assumption; apply checksum64_le). injection E as E.
    eexists. split; [reflexivity|]. split; [eapply N.le_lt_trans; [apply checksum64_le|lia]|].
    rewrite <- E. rewrite (tcp_post_of h p W).
    rewrite CPP.tcp_header_len_u16_val
      by (rewrite <- (tcp_header_len_of h W) in HL; unfold tcp_header_len in HL; lia).
    rewrite (tcp_header_len_of h W). rewrite p4be_P4w.
    apply tcp_wire_of; [exact W|]. eapply N.le_lt_trans; [apply checksum64_le|lia].
  - unfold icmp4_of. cbn [option_map].
    split; [exact (c09_icmp4_ok k W)|]. unfold icmp4_emit in E. rewrite icmp4_to_bytes_wire in E. injection E as E.
    eexists. split; [reflexivity|].
    split; [unfold CP.icmp4_calc_checksum; eapply N.le_lt_trans; [apply checksum64_le|lia]|].
    symmetry. exact E.
  - unfold icmp6_of. cbn [option_map]. split; [exact (c09_icmp6_ok k W)|].
    rewrite !p16_of_len in E by assumption.
    unfold CP.update_checksum_ipv6.
    destruct (CP.icmp6_calc_checksum e (c09_icmp6 k) s d p) as [ck|a m|] eqn:EC; try discriminate.
    rewrite icmp6_to_bytes_wire in E. injection E as E.
    exists ck. split; [reflexivity|]. split; [|symmetry; exact E].
    unfold CP.icmp6_calc_checksum in EC. destruct (_ <? _); [discriminate|]. injection EC as <-.
    eapply N.le_lt_trans; [apply checksum64_le|lia].
Qed.

Definition th_ck_off (th : transport_hdr) : N :=
  match th with THUdp _ => 6 | THTcp _ => 16 | _ => 2 end.
Definition th_pre (th : transport_hdr) : bytes := take (th_ck_off th) (th_wire th 0).
Definition th_post (th : transport_hdr) : bytes := drop (th_ck_off th + 2) (th_wire th 0).

Lemma th_wire_split th ck : th_wire th ck = th_pre th ++ w16 ck ++ th_post th.
Proof. destruct th as [h|h|t|t]; [| |destruct t..]; reflexivity. Qed.
Lemma th_pre_len th : len (th_pre th) = th_ck_off th.
Proof. destruct th as [h|h|t|t]; [| |destruct t..]; reflexivity. Qed.
Lemma th_pre_even th : even_len (th_pre th).
Proof. destruct th as [h|h|t|t]; [| |destruct t..]; reflexivity. Qed.
Lemma th_wire_len th ck : len (th_wire th ck) = len (th_wire th 0).
Proof. rewrite !th_wire_split, !len_app. reflexivity. Qed.

Lemma W_u16 (a tl : bytes) v k : k = len a -> v < 65536 -> W (a ++ u16_to_be v ++ tl) k = v.
Proof.
  intros -> L. unfold W. rewrite (B_app_r a _ (len a)) by lia. rewrite (B_app_r a _ (len a + 1)) by lia.
  replace (len a - len a) with 0 by lia. replace (len a + 1 - len a) with 1 by lia.
  unfold u16_to_be. cbn [app]. rewrite B_cons0, B_consS by lia. change (1 - 1) with 0. rewrite B_cons0.
  apply (u16_be_roundtrip v L).
Qed.

Lemma W_th_wire th ck p : ck < 65536 -> W (th_wire th ck ++ p) (th_ck_off th) = ck.
Proof.
  intros L. rewrite th_wire_split, <- !app_assoc. apply W_u16; [symmetry; apply th_pre_len|exact L].
Qed.

(* a field filled with the RFC value: verifies, is where the RFC puts it, and is
   the RFC value of the segment with the field zeroed *)
Lemma wire_filled th ps p ck : even_len ps ->
  (ck = rfc1071 (ps ++ th_wire th 0 ++ p) \/ ck = no_zero (rfc1071 (ps ++ th_wire th 0 ++ p))) ->
  let seg := th_wire th ck ++ p in
  ck < 65536 /\ folds_to_ffff (ps ++ seg) = true /\ W seg (th_ck_off th) = ck /\
  zero16_at (th_ck_off th) seg = th_wire th 0 ++ p.
Proof.
  intros EV H. cbv zeta.
  assert (F : ck < 65536 /\ folds_to_ffff ((ps ++ th_pre th) ++ u16_to_be ck ++ th_post th ++ p) = true).
  { apply filled_verifies; [apply even_len_app; [exact EV|apply th_pre_even]|].
    rewrite (th_wire_split th 0), <- !app_assoc, (app_assoc ps) in H. exact H. }
  destruct F as [L F]. split; [exact L|].
  split; [|split; [exact (W_th_wire th ck p L)|]].
  - rewrite (th_wire_split th ck). rewrite <- !app_assoc in F |- *. exact F.
  - rewrite (th_wire_split th ck), (th_wire_split th 0), <- !app_assoc. unfold w16, to_be16. cbn [app].
    apply zero16_at_app. symmetry. apply th_pre_len.
Qed.

Lemma ip6_wf_set h pl nh : ip6_wf h = true -> ip6_wf (ip6_set_len_next h pl nh) = true.
Proof. intros H. exact H. Qed.

Definition has_ck4 (t : transport_cfg) : bool :=
  match t with TrUdp _ _ | TrTcp _ | TrIcmpv4 _ => true | _ => false end.
Definition has_ck6 (t : transport_cfg) : bool :=
  match t with TrNone _ => false | _ => true end.
Definition ps4 (t : transport_cfg) (s d : bytes) (L : N) : bytes :=
  match t with TrUdp _ _ => pseudo4 s d 17 L | TrTcp _ => pseudo4 s d 6 L | _ => [] end.
Definition ps6 (t : transport_cfg) (s d : bytes) (L : N) : bytes :=
  match t with
  | TrUdp _ _ => pseudo6 s d L 17 | TrTcp _ => pseudo6 s d L 6 | TrIcmpv6 _ => pseudo6 s d L 58
  | _ => []
  end.

Lemma th_ck_off_of t ul th : th_of t ul = Some th -> th_ck_off th = ck_field_off t.
Proof.
  destruct t as [n|sp dp|h|k|k]; cbn [th_of]; intros H; try discriminate.
  - injection H as <-. reflexivity.
  - injection H as <-. reflexivity.
  - injection H as <-. reflexivity.
  - injection H as <-. reflexivity.
Qed.

Lemma len_th_wire_of t ul th ck : tr_wf t = true -> th_of t ul = Some th ->
  len (th_wire th ck) = tr_header_len t.
Proof.
  destruct t as [n|sp dp|h|k|k]; cbn [th_of tr_wf tr_header_len]; intros W H; try discriminate.
  - injection H as <-. reflexivity.
  - injection H as <-. cbn [th_wire]. rewrite <- (tcp_header_len_of h W).
    unfold tcp_wire, tcp_header_len, w16, w32, to_be16, to_be32, len. rewrite !app_length. cbn [length]. lia.
  - injection H as <-. cbn [th_wire].
    destruct (Icmp4Proofs.icmp4_ser_agree {| Icmp4.icmp4_type := k; Icmp4.icmp4_checksum := ck |} [])
      as (b & EB & _ & LB).
    rewrite icmp4_to_bytes_wire in EB. injection EB as <-. exact LB.
  - injection H as <-. cbn [th_wire].
    destruct (Icmp6Proofs.icmp6_ser_agree {| Icmp6.icmp6_type := k; Icmp6.icmp6_checksum := ck |} [])
      as (b & EB & _ & LB).
    rewrite icmp6_to_bytes_wire in EB. injection EB as <-. exact LB.
Qed.

Lemma ck4 e s0 s1 s2 s3 d0 d1 d2 d3 t p tb :
  tr_wf t = true -> bytes_ok p -> bytes_ok [s0; s1; s2; s3] -> bytes_ok [d0; d1; d2; d3] ->
  8 + len p < 65536 -> has_ck4 t = true ->
  tr_ipv4 e [s0; s1; s2; s3] [d0; d1; d2; d3] t (8 + len p) p = TOk tb ->
  let seg := tb ++ p in
  let ps := ps4 t [s0; s1; s2; s3] [d0; d1; d2; d3] (len seg) in
  let k := ck_field_off t in
  len tb = tr_header_len t /\
  folds_to_ffff (ps ++ seg) = true /\ W seg k = ck_value t (rfc1071 (ps ++ zero16_at k seg)).
Proof.
  intros WT BP BS BD UL HC E. cbv zeta.
  pose proof (tr_ipv4_is_update e s0 s1 s2 s3 d0 d1 d2 d3 t (8 + len p) p tb WT UL E) as U.
  destruct (th_of t (8 + len p)) as [th|] eqn:ETH; [|destruct U as (_ & n & ->); discriminate].
  destruct U as (OK & ck & EU & LCK & ETB).
  rewrite (CPP.update_checksum_ipv4_correct e th (s0, s1, s2, s3) (d0, d1, d2, d3) p OK BS BD BP) in EU.
  pose proof (th_ck_off_of t _ th ETH) as EO.
  pose proof (len_th_wire_of t _ th ck WT ETH) as LW.
  subst tb. split; [exact LW|]. rewrite len_app, LW. rewrite <- EO.
  destruct t as [n|sp dp|h|k|k]; cbn [has_ck4] in HC; try discriminate; cbn [th_of] in ETH.
  - (* UDP *) injection ETH as <-. cbn [update4_spec u_length tr_header_len ps4 ck_value] in *.
    destruct (65527 <? len p); [discriminate|]. injection EU as EU. unfold udp4_spec in EU.
    cbn [u_length] in EU.
    set (th := THUdp _) in *.
    destruct (wire_filled th (pseudo4 [s0; s1; s2; s3] [d0; d1; d2; d3] 17 (8 + len p)) p ck) as (_ & V & WW & Z).
    { reflexivity. } { right. rewrite <- EU. reflexivity. }
    split; [exact V|]. rewrite WW, Z. rewrite <- EU. reflexivity.
  - (* TCP *) injection ETH as <-. cbn [update4_spec tr_header_len ps4 ck_value] in *.
    rewrite (tcp_header_len_of h WT) in EU.
    destruct (65535 - Tcp.header_len h <? len p); [discriminate|]. injection EU as EU. unfold tcp4_spec in EU.
    rewrite (tcp_header_len_of h WT) in EU.
    set (th := THTcp _) in *.
    destruct (wire_filled th (pseudo4 [s0; s1; s2; s3] [d0; d1; d2; d3] 6 (Tcp.header_len h + len p)) p ck) as (_ & V & WW & Z).
    { reflexivity. } { left. rewrite <- EU. reflexivity. }
    split; [exact V|]. rewrite WW, Z. rewrite <- EU. reflexivity.
  - (* ICMPv4 *) injection ETH as <-.
    cbn [update4_spec tr_header_len ps4 ck_value] in *. injection EU as EU. unfold icmp4_spec in EU.
    set (th := THIcmp4 _) in *.
    destruct (wire_filled th [] p ck) as (_ & V & WW & Z).
    { reflexivity. } { left. rewrite <- EU. reflexivity. }
    split; [exact V|]. rewrite WW, Z. rewrite <- EU. reflexivity.
Qed.

Lemma even_pseudo6 s d L nh : len s = 16 -> len d = 16 -> even_len (pseudo6 s d L nh).
Proof.
  intros LS LD. unfold pseudo6.
  apply even_len_app; [apply (ProofsCk.even_len_of_len s 8); rewrite LS; reflexivity|].
  apply even_len_app; [apply (ProofsCk.even_len_of_len d 8); rewrite LD; reflexivity|]. reflexivity.
Qed.

Lemma ck6 e s d t p tb :
  tr_wf t = true -> bytes_ok p -> bytes_ok s -> bytes_ok d -> len s = 16 -> len d = 16 ->
  8 + len p < 65536 -> has_ck6 t = true ->
  tr_ipv6 e s d t (8 + len p) p = TOk tb ->
  let seg := tb ++ p in
  let ps := ps6 t s d (len seg) in
  let k := ck_field_off t in
  len tb = tr_header_len t /\
  folds_to_ffff (ps ++ seg) = true /\ W seg k = ck_value t (rfc1071 (ps ++ zero16_at k seg)).
Proof.
  intros WT BP BS BD LS LD UL HC E. cbv zeta.
  pose proof (tr_ipv6_is_update e s d t (8 + len p) p tb LS LD WT UL E) as U.
  destruct (th_of t (8 + len p)) as [th|] eqn:ETH; [|destruct U as (_ & n & ->); discriminate].
  destruct U as (OK & ck & EU & LCK & ETB).
  assert (IS : ip6_ok s) by (split; [exact BS|unfold len in LS; lia]).
  assert (ID : ip6_ok d) by (split; [exact BD|unfold len in LD; lia]).
  rewrite (CPP.update_checksum_ipv6_correct e th s d p OK IS ID BP) in EU.
  pose proof (th_ck_off_of t _ th ETH) as EO.
  pose proof (len_th_wire_of t _ th ck WT ETH) as LW.
  subst tb. split; [exact LW|]. rewrite len_app, LW. rewrite <- EO.
  destruct t as [n|sp dp|h|k|k]; cbn [has_ck6] in HC; try discriminate; cbn [th_of] in ETH.
  - (* UDP *) injection ETH as <-. cbn [update6_spec u_length tr_header_len ps6 ck_value] in *.
    destruct (4294967287 <? len p); [discriminate|]. injection EU as EU. unfold udp6_spec in EU.
    cbn [u_length] in EU.
    set (th := THUdp _) in *.
    destruct (wire_filled th (pseudo6 s d (8 + len p) 17) p ck) as (_ & V & WW & Z).
    { apply even_pseudo6; assumption. } { right. rewrite <- EU. reflexivity. }
    split; [exact V|]. rewrite WW, Z. rewrite <- EU. reflexivity.
  - (* TCP *) injection ETH as <-. cbn [update6_spec tr_header_len ps6 ck_value] in *.
    rewrite (tcp_header_len_of h WT) in EU.
    destruct (4294967295 - Tcp.header_len h <? len p); [discriminate|]. injection EU as EU. unfold tcp6_spec in EU.
    rewrite (tcp_header_len_of h WT) in EU.
    set (th := THTcp _) in *.
    destruct (wire_filled th (pseudo6 s d (Tcp.header_len h + len p) 6) p ck) as (_ & V & WW & Z).
    { apply even_pseudo6; assumption. } { left. rewrite <- EU. reflexivity. }
    split; [exact V|]. rewrite WW, Z. rewrite <- EU. reflexivity.
  - (* ICMPv4 *) injection ETH as <-.
    cbn [update6_spec tr_header_len ps6 ck_value] in *. injection EU as EU. unfold icmp4_spec in EU.
    set (th := THIcmp4 _) in *.
    destruct (wire_filled th [] p ck) as (_ & V & WW & Z).
    { reflexivity. } { left. rewrite <- EU. reflexivity. }
    split; [exact V|]. rewrite WW, Z. rewrite <- EU. reflexivity.
  - (* ICMPv6 *) injection ETH as <-.
    cbn [update6_spec tr_header_len ps6 ck_value] in *. rewrite (icmp6_hl k) in *.
    destruct (4294967287 <? len p); [discriminate|]. injection EU as EU. unfold icmp6_spec in EU.
    set (th := THIcmp6 _) in *.
    destruct (wire_filled th (pseudo6 s d (8 + len p) 58) p ck) as (_ & V & WW & Z).
    { apply even_pseudo6; assumption. } { left. rewrite <- EU. reflexivity. }
    split; [exact V|]. rewrite WW, Z. rewrite <- EU. reflexivity.
Qed.

Lemma th_of_as_u16 t n : tr_header_len t + n <= 65535 -> th_of t (as_u16 (8 + n)) = th_of t (8 + n).
Proof.
  intros F. destruct t; try reflexivity. cbn [tr_header_len] in F. cbn [th_of].
  rewrite as_u16_small by lia. reflexivity.
Qed.

Lemma tr_header_len_ge8 t : has_ck6 t = true -> 8 <= tr_header_len t /\ ck_field_off t + 2 <= tr_header_len t.
Proof.
  destruct t as [n|sp dp|h|k|k]; cbn [has_ck6 tr_header_len ck_field_off]; intros H; try discriminate.
  - lia.
  - unfold Tcp.header_len. lia.
  - pose proof (icmp4_hl_bounds k). lia.
  - rewrite icmp6_hl. lia.
Qed.

(* the transport header of a built packet is the RFC layout of the header value the
   checksum functions of C09 are called on *)
Lemma built_transport e c p nb xb tb : cfg_wf c = true -> build_parts e c p nb xb tb ->
  (forall a, c_net c <> NtArp a) ->
  match th_of (c_transport c) (8 + len p) with
  | None => tb = []
  | Some th => exists ck, ck < 65536 /\ tb = th_wire th ck
  end.
Proof.
  intros W P NA. destruct (cfg_wf_inv c W) as (_ & _ & WN & WT & _).
  rewrite <- (th_of_as_u16 _ _ (build_parts_fits e c p nb xb tb W P NA)).
  pose proof (as_u16_lt (8 + len p)) as UL. destruct P as (_ & _ & _ & P).
  destruct (c_net c) as [h x|h x|a]; cbn [net_wf] in WN; [| |destruct (NA a eq_refl)];
    apply andb_true_iff in WN; destruct WN as [WH WX]; destruct P as (_ & _ & _ & ETR).
  - destruct (Ipv4Proofs.wf_ip4_facts h WH) as (_ & _ & (LS & _ & LD & _) & _).
    destruct (LinkNetLemmas.len4_explicit _ LS) as (s0 & s1 & s2 & s3 & ES).
    destruct (LinkNetLemmas.len4_explicit _ LD) as (d0 & d1 & d2 & d3 & ED).
    rewrite ES, ED in ETR.
    pose proof (tr_ipv4_is_update e s0 s1 s2 s3 d0 d1 d2 d3 _ _ p tb WT UL ETR) as U.
    destruct (th_of (c_transport c) (as_u16 (8 + len p))) as [th|].
    + destruct U as (_ & ck & _ & L & ->). exists ck. split; [exact L|reflexivity].
    + exact (proj1 U).
  - destruct (ip6_wf_inv h WH) as (_ & _ & _ & (LS & _) & (LD & _)).
    pose proof (tr_ipv6_is_update e _ _ _ _ p tb LS LD WT UL ETR) as U.
    destruct (th_of (c_transport c) (as_u16 (8 + len p))) as [th|].
    + destruct U as (_ & ck & _ & L & ->). exists ck. split; [exact L|reflexivity].
    + exact (proj1 U).
Qed.

Theorem checksums_verify e c p bs : cfg_wf c = true -> bytes_ok p -> build e c p = BOk bs ->
  let seg := drop (off_transport c) bs in
  let k := ck_field_off (c_transport c) in
  match ck_pseudo c (len seg) with
  | None => True
  | Some ph =>
      len seg = tr_header_len (c_transport c) + len p /\ off_transport c + len seg = len bs /\
      k + 2 <= tr_header_len (c_transport c) /\
      verifies (ph ++ seg) /\
      W bs (off_transport c + k) = ck_value (c_transport c) (rfc1071 (ph ++ zero16_at k seg))
  end.
Proof.
  intros WF BP E. cbv zeta. destruct (cfg_wf_inv c WF) as (WL & WV & WN & WT & WS).
  pose proof (build_size e c p bs WF E) as LEN.
  destruct (build_inv e c p bs WF E) as (nb & xb & tb & EB & P).
  destruct (built_offsets e c p nb xb tb bs WL P EB) as (_ & _ & _ & DR & _). rewrite DR.
  unfold ck_pseudo.
  destruct (has_ck6 (c_transport c)) eqn:HC; [|destruct (c_net c), (c_transport c); try discriminate; exact I].
  destruct (tr_header_len_ge8 _ HC) as (G8 & KK).
  destruct (c_net c) as [h x|h x|a] eqn:EN; cbn [net_wf] in WN; [| |exact I];
    pose proof (build_parts_fits e c p nb xb tb WF P ltac:(intros a; rewrite EN; discriminate)) as BND;
    assert (UL : 8 + len p < 65536) by lia;
    assert (LB : off_transport c + (tr_header_len (c_transport c) + len p) = len bs)
      by (rewrite LEN; unfold final_size, off_transport, off_net, transport_len; rewrite EN; lia);
    destruct P as (_ & _ & LT & P); unfold transport_len in LT; rewrite EN in LT, P; destruct P as (_ & _ & _ & ETR);
    rewrite (as_u16_small _ UL) in ETR; apply andb_true_iff in WN; destruct WN as [WH WX];
    rewrite <- W_drop, DR, len_app, LT.
  - (* IPv4 *)
    destruct (Ipv4Proofs.wf_ip4_facts h WH) as (_ & _ & (LS & OS & LD & OD) & _).
    destruct (Ipv4Proofs.len4_explicit _ LS OS) as (s0 & s1 & s2 & s3 & ES & _).
    destruct (Ipv4Proofs.len4_explicit _ LD OD) as (d0 & d1 & d2 & d3 & ED & _).
    rewrite ES, ED in *.
    destruct (has_ck4 (c_transport c)) eqn:HC4; [|destruct (c_transport c); try discriminate; exact I].
    destruct (ck4 e s0 s1 s2 s3 d0 d1 d2 d3 (c_transport c) p tb WT BP OS OD UL HC4 ETR) as (_ & V & WW).
    rewrite len_app, LT in V, WW.
    destruct (c_transport c) as [n|sp dp|t|k|k]; cbn [has_ck4] in HC4; try discriminate;
      cbn [ps4] in V, WW; (split; [reflexivity|]); (split; [exact LB|]);
      (split; [exact KK|]); (split; [exact V|exact WW]).
  - (* IPv6 *)
    destruct (ip6_wf_inv h WH) as (_ & _ & _ & (LS & OS) & (LD & OD)).
    destruct (ck6 e _ _ (c_transport c) p tb WT BP OS OD LS LD UL HC ETR) as (_ & V & WW).
    rewrite len_app, LT in V, WW.
    destruct (c_transport c) as [n|sp dp|t|k|k]; cbn [has_ck6] in HC; try discriminate;
      cbn [ps6] in V, WW; (split; [reflexivity|]); (split; [exact LB|]);
      (split; [exact KK|]); (split; [exact V|exact WW]).
Qed.

(* the header the builder serialises IS the RFC layout (Checksum/ProtoSpec.v) of the
   configured header with the stored checksum, followed by exactly the payload *)
Theorem transport_is_rfc_layout e c p bs : cfg_wf c = true -> build e c p = BOk bs ->
  match c_net c with
  | NtArp _ => True
  | _ =>
    match th_of (c_transport c) (8 + len p) with
    | None => drop (off_transport c) bs = p
    | Some th => exists ck, ck < 65536 /\ drop (off_transport c) bs = th_wire th ck ++ p
    end
  end.
Proof.
  intros WF E. destruct (cfg_wf_inv c WF) as (WL & _).
  destruct (build_inv e c p bs WF E) as (nb & xb & tb & EB & P).
  destruct (built_offsets e c p nb xb tb bs WL P EB) as (_ & _ & _ & DR & _). rewrite DR.
  destruct (c_net c) as [h x|h x|a] eqn:EN; [| |exact I];
    pose proof (built_transport e c p nb xb tb WF P ltac:(intros a; rewrite EN; discriminate)) as T;
    (destruct (th_of (c_transport c) (8 + len p)) as [th|];
      [destruct T as (ck & L & ->); exists ck; split; [exact L|reflexivity]|rewrite T; reflexivity]).
Qed.

(* UDP: the length field is the actual length (not truncated), the checksum is
   never 0 and verifies with the pseudo header of the enclosing IP header *)
Theorem udp_consistent e c p bs sp dp : cfg_wf c = true -> bytes_ok p -> build e c p = BOk bs ->
  c_transport c = TrUdp sp dp ->
  match c_net c with
  | NtArp _ => True
  | NtIpv4 h _ =>
      8 + len p < 65536 /\ exists ck, ck <> 0 /\ ck < 65536 /\
        drop (off_transport c) bs = udp_to_bytes sp dp (8 + len p) ck ++ p /\
        verifies (pseudo4 (Ipv4.i4_source h) (Ipv4.i4_destination h) 17 (8 + len p) ++ drop (off_transport c) bs)
  | NtIpv6 h _ =>
      8 + len p < 65536 /\ exists ck, ck <> 0 /\ ck < 65536 /\
        drop (off_transport c) bs = udp_to_bytes sp dp (8 + len p) ck ++ p /\
        verifies (pseudo6 (BitFields.Model.v6_source h) (BitFields.Model.v6_destination h) (8 + len p) 17
                  ++ drop (off_transport c) bs)
  end.
Proof.
  intros WF BP E ET.
  destruct (build_inv e c p bs WF E) as (nb & xb & tb & _ & P).
  pose proof (transport_is_rfc_layout e c p bs WF E) as RL.
  pose proof (checksums_verify e c p bs WF BP E) as CV. cbv zeta in CV. unfold ck_pseudo in CV.
  rewrite ET in RL, CV. cbn [th_of th_wire ck_field_off ck_value tr_header_len] in RL, CV.
  assert (NZ : forall ck, ck < 65536 ->
            drop (off_transport c) bs = udp_wire {| u_sport := sp; u_dport := dp; u_length := 8 + len p |} ck ++ p ->
            forall v, W bs (off_transport c + 6) = no_zero v -> ck <> 0).
  { intros ck L D v WW. rewrite <- W_drop, D in WW.
    pose proof (W_th_wire (THUdp {| u_sport := sp; u_dport := dp; u_length := 8 + len p |}) ck p L) as Q.
    cbn [th_wire th_ck_off] in Q. rewrite Q in WW. rewrite WW. apply CPP.no_zero_nonzero. }
  destruct (c_net c) as [h x|h x|a] eqn:EN; [| |exact I];
    pose proof (build_parts_fits e c p nb xb tb WF P ltac:(intros a; rewrite EN; discriminate)) as F;
    rewrite ET in F; cbn [tr_header_len] in F;
    destruct RL as (ck & L & D); destruct CV as (LS & _ & _ & V & WW);
    (split; [lia|]); exists ck; rewrite LS in V;
    (split; [exact (NZ ck L D _ WW)|]); (split; [exact L|]); (split; [exact D|exact V]).
Qed.

(* TCP: the header behind the IP layer decodes (C08) to the configured header
   (ports, sequence numbers, flags, window, urgent pointer, options) and the payload *)
Theorem tcp_decodes e c p bs t : cfg_wf c = true -> build e c p = BOk bs -> c_transport c = TrTcp t ->
  match c_net c with
  | NtArp _ => True
  | _ => exists ck, ck < 65536 /\
           Tcp.from_slice (drop (off_transport c) bs) = Ok (Tcp.norm (tcp_set_checksum t ck), p)
  end.
Proof.
  intros W E ET. pose proof (transport_is_rfc_layout e c p bs W E) as RL.
  destruct (cfg_wf_inv c W) as (_ & _ & _ & WT & _). rewrite ET in RL, WT. cbn [th_of th_wire tr_wf] in RL, WT.
  assert (DEC : forall ck, ck < 65536 ->
            Tcp.from_slice (tcp_wire (tcp_hdr_of t) ck ++ p) = Ok (Tcp.norm (tcp_set_checksum t ck), p)).
  { intros ck L. pose proof (wf_tcp_set_checksum t ck WT L) as W2.
    destruct (TcpProofs.tcp_dec_enc _ p W2) as (enc & EE & DEC & _).
    rewrite (TcpProofs.to_bytes_wf _ W2) in EE. apply Some_inj in EE. subst enc.
    rewrite <- (tcp_wire_of t ck WT L). exact DEC. }
  destruct (c_net c); [| |exact I]; destruct RL as (ck & L & D); exists ck; rewrite D;
    (split; [exact L|apply DEC; exact L]).
Qed.
