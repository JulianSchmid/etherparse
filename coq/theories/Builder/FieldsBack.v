(* Builder/FieldsBack.v -- property C10: the header FIELD VALUES that the
   accessors of the strict slicing result return on the built bytes are the supplied values.

   C03 (Parse/Fields.v, FieldsProofs.v): for every strict result sp of the slicer model on bs,
     fields_of_packet sp = Ok (spec_fields bs (view sp))
   (accessor models of the slices stored in sp = the RFC fields at the layers' absolute positions).
   C10_crate_parse_back: on built bytes the slicer model returns Ok sp with view sp = expected_x.
   Here: spec_fields bs (expected_x c |p|) is EVALUATED on the built bytes, layer by layer, to the list
   `cfg_fields` written from the configuration alone.  No new model: composition + evaluation of the
   C03 field specification on the encoders of Builder/Model.v (C08 / C09 / C15 layouts). *)
From Coq Require Import ZArith Lia ZifyN ZifyBool List.
From EP Require Import Base.Bytes Checksum.Spec Checksum.Model Checksum.Proofs.
From EP Require Import Checksum.ProtoTypes Checksum.ProtoSpec.
From EP Require Import Roundtrip.Common Roundtrip.CommonProofs.
From EP Require Roundtrip.Spec Roundtrip.SpecLinkNet Roundtrip.Tcp Roundtrip.TcpProofs Roundtrip.Ipv4 Roundtrip.Ipv4Proofs.
From EP Require CtlMsg.Spec CtlMsg.Model Roundtrip.Icmp4 Roundtrip.Icmp6.
From EP Require ExtChain.Spec ExtChain.Model ExtChain.View ExtChain.Proofs BitFields.Model BitFields.Spec
  BitFields.BitLemmas BitFields.Proofs BitFields.Proofs2.
From EP Require Import Parse.Types Parse.Slices Parse.Cursor Parse.View Parse.WireSpec.
From EP Require Parse.StrictProofs Parse.FieldsProofs.
From EP Require Import Builder.Model Builder.Spec Builder.Proofs Builder.ProofsCk Builder.SpecX Builder.ProofsTr
  Builder.ProofsNx Builder.ProofsPb Builder.ProofsVal Builder.ProofsEx Builder.ProofsCrate.
From EP Require Import Parse.Fields.
Import ListNotations.
Local Open Scope N_scope.

Local Notation bfield := BitFields.Spec.field.
Local Notation bits_of := BitFields.Spec.bits_of.

Lemma len_S {A} (l : list A) n : len l = N.succ n -> exists x r, l = x :: r /\ len r = n.
Proof.
  destruct l as [|x r]; intros H; [rewrite len_nil in H; lia|]. exists x, r. split; [reflexivity|].
  rewrite len_cons in H. lia.
Qed.

Ltac expl l L :=
  let rec go l L :=
    lazymatch type of L with
    | len l = 0 => apply len_0_nil in L; subst l
    | len l = ?n =>
        let x := fresh "x" in let r := fresh "r" in let L' := fresh "L" in
        let k := eval vm_compute in (N.pred n) in
        destruct (len_S l k L) as (x & r & -> & L'); clear L; go r L'
    end in go l L.

Lemma bytes_at_drop bs p n : forall i, bytes_at (drop p bs) i n = bytes_at bs (p + i) n.
Proof.
  induction n as [|n IH]; intros i; cbn [bytes_at]; [reflexivity|].
  rewrite B_drop, IH. now rewrite N.add_assoc.
Qed.

Ltac shift :=
  unfold W, num_at, flag, bits, bytes_n; rewrite ?B_drop, ?bytes_at_drop, ?N.add_assoc, ?N.add_0_r; reflexivity.

Lemma eth_shift bs p : eth_spec bs p = eth_spec (drop p bs) 0.
Proof. unfold eth_spec. shift. Qed.
Lemma sll_shift bs p : sll_spec bs p = sll_spec (drop p bs) 0.
Proof. unfold sll_spec. shift. Qed.
Lemma vlan_shift bs p : vlan_spec bs p = vlan_spec (drop p bs) 0.
Proof. unfold vlan_spec. shift. Qed.
Lemma arp_shift bs p : arp_spec bs p = arp_spec (drop p bs) 0.
Proof. unfold arp_spec. cbv zeta. shift. Qed.
Lemma ipv4_shift bs p hl : ipv4_spec bs p hl = ipv4_spec (drop p bs) 0 hl.
Proof. unfold ipv4_spec. shift. Qed.
Lemma ah_shift bs p l : ah_spec bs p l = ah_spec (drop p bs) 0 l.
Proof. unfold ah_spec. shift. Qed.
Lemma ipv6_shift bs p : ipv6_spec bs p = ipv6_spec (drop p bs) 0.
Proof. unfold ipv6_spec. shift. Qed.
Lemma udp_shift bs p : udp_spec bs p = udp_spec (drop p bs) 0.
Proof. unfold udp_spec. shift. Qed.
Lemma tcp_shift bs p hl : tcp_spec bs p hl = tcp_spec (drop p bs) 0 hl.
Proof. unfold tcp_spec. shift. Qed.
Lemma icmp_shift bs p : icmp_spec bs p = icmp_spec (drop p bs) 0.
Proof. unfold icmp_spec. shift. Qed.
Lemma raw_ext_shift bs p l : raw_ext_spec bs p l = raw_ext_spec (drop p bs) 0 l.
Proof. unfold raw_ext_spec. shift. Qed.
Lemma frag_shift bs p : frag_spec bs p = frag_spec (drop p bs) 0.
Proof. unfold frag_spec. shift. Qed.

Lemma be16_u16 v : v < 65536 -> be16 ((v / 256) mod 256) (v mod 256) = v.
Proof. apply u16_be_roundtrip. Qed.

Lemma bytes_n_take bs p n : p + n <= len bs -> bytes_n bs p n = take n (drop p bs).
Proof.
  intros H. unfold bytes_n. rewrite <- (Parse.FieldsProofs.take_drop_bytes_at bs (N.to_nat n) p) by lia.
  now rewrite N2Nat.id.
Qed.

Lemma bytes_n_mid (pre o rest : bytes) p n : p = len pre -> n = len o -> bytes_n (pre ++ o ++ rest) p n = o.
Proof.
  intros -> ->. rewrite bytes_n_take by (rewrite !len_app; lia).
  rewrite drop_app_len by reflexivity. apply take_app_len. reflexivity.
Qed.

Lemma bits_of_len a : length (bits_of a) = (8 * length a)%nat.
Proof.
  induction a as [|b r IH]; [reflexivity|]. rewrite BitFields.BitLemmas.bits_of_cons, app_length, IH.
  rewrite BitFields.BitLemmas.nbits_length. cbn [length]. lia.
Qed.

Lemma bfield_prefix a b off n : (off + n <= 8 * length a)%nat ->
  bfield (bits_of a) off n = bfield (bits_of (a ++ b)) off n.
Proof.
  intros H. rewrite BitFields.BitLemmas.bits_of_app. symmetry. apply BitFields.BitLemmas.field_prefix.
  rewrite bits_of_len. exact H.
Qed.

Lemma lfield l1 w v l2 off : off = BitFields.Spec.layout_width l1 -> v < 2 ^ N.of_nat w ->
  bfield (BitFields.Spec.layout_bits (l1 ++ BitFields.Spec.F w v :: l2)) off w = v.
Proof. intros -> H. rewrite BitFields.BitLemmas.layout_field. apply N.mod_small. exact H. Qed.

Definition eth_cfg (s d : bytes) (et : N) : fl :=
  [(Fdst, FvN (be_num d)); (Fsrc, FvN (be_num s)); (Fether_type, FvN et)].

Lemma eth_raw d0 d1 d2 d3 d4 d5 s0 s1 s2 s3 s4 s5 e0 e1 rest :
  eth_spec (d0 :: d1 :: d2 :: d3 :: d4 :: d5 :: s0 :: s1 :: s2 :: s3 :: s4 :: s5 :: e0 :: e1 :: rest) 0 =
  [(Fdst, FvN (be_num [d0; d1; d2; d3; d4; d5])); (Fsrc, FvN (be_num [s0; s1; s2; s3; s4; s5]));
   (Fether_type, FvN (be16 e0 e1))].
Proof. reflexivity. Qed.

Lemma eth_eval s d et rest : len s = 6 -> len d = 6 -> et < 65536 ->
  eth_spec (eth_to_bytes s d et ++ rest) 0 = eth_cfg s d et.
Proof.
  intros Ls Ld E. expl s Ls. expl d Ld. unfold eth_to_bytes, u16_to_be. cbn [app].
  rewrite eth_raw, (be16_u16 _ E). reflexivity.
Qed.

Definition sll_cfg (pt vl : N) (a : bytes) (et : N) : fl :=
  [(Fpacket_type, FvN pt); (Fhw_type, FvN 1); (Faddr_len, FvN vl); (Faddr, FvBytes a); (Fprotocol, FvN et)].

Lemma sll_raw b0 b1 b2 b3 b4 b5 a0 a1 a2 a3 a4 a5 a6 a7 b14 b15 rest :
  sll_spec (b0 :: b1 :: b2 :: b3 :: b4 :: b5 :: a0 :: a1 :: a2 :: a3 :: a4 :: a5 :: a6 :: a7 :: b14 :: b15 :: rest) 0 =
  [(Fpacket_type, FvN (be16 b0 b1)); (Fhw_type, FvN (be16 b2 b3)); (Faddr_len, FvN (be16 b4 b5));
   (Faddr, FvBytes [a0; a1; a2; a3; a4; a5; a6; a7]); (Fprotocol, FvN (be16 b14 b15))].
Proof. reflexivity. Qed.

Lemma sll_eval pt vl a et rest : pt < 65536 -> vl < 65536 -> len a = 8 -> et < 65536 ->
  sll_spec (sll_to_bytes pt vl a et ++ rest) 0 = sll_cfg pt vl a et.
Proof.
  intros P V La E. expl a La. unfold sll_to_bytes, u16_to_be. cbn [app].
  rewrite sll_raw, (be16_u16 _ P), (be16_u16 _ V), (be16_u16 _ E), (be16_u16 1) by lia. reflexivity.
Qed.

Definition udp_cfg (sp dp l ck : N) : fl :=
  [(Fsrc_port, FvN sp); (Fdst_port, FvN dp); (Flength, FvN l); (Fchecksum, FvN ck)].

Lemma udp_raw b0 b1 b2 b3 b4 b5 b6 b7 rest :
  udp_spec (b0 :: b1 :: b2 :: b3 :: b4 :: b5 :: b6 :: b7 :: rest) 0 =
  [(Fsrc_port, FvN (be16 b0 b1)); (Fdst_port, FvN (be16 b2 b3)); (Flength, FvN (be16 b4 b5));
   (Fchecksum, FvN (be16 b6 b7))].
Proof. reflexivity. Qed.

Lemma udp_eval sp dp l ck rest : sp < 65536 -> dp < 65536 -> l < 65536 -> ck < 65536 ->
  udp_spec (udp_wire {| u_sport := sp; u_dport := dp; u_length := l |} ck ++ rest) 0 = udp_cfg sp dp l ck.
Proof.
  intros S D L C. unfold udp_wire, w16, to_be16. cbn [app u_sport u_dport u_length].
  rewrite udp_raw, (be16_u16 _ S), (be16_u16 _ D), (be16_u16 _ L), (be16_u16 _ C). reflexivity.
Qed.

(* w0 = the RFC 792 / 4443 layout of the configured message with a zero checksum field
   (Checksum/ProtoSpec.v icmp4_wire / icmp6_wire): type, code, rest of header *)
Definition icmp_cfg (w0 : bytes) (ck : N) : fl :=
  [(Ftype, FvN (B w0 0)); (Fcode, FvN (B w0 1)); (Fchecksum, FvN ck); (Fbytes4to8, FvBytes (take 4 (drop 4 w0)))].

Lemma icmp_raw b0 b1 b2 b3 b4 b5 b6 b7 rest :
  icmp_spec (b0 :: b1 :: b2 :: b3 :: b4 :: b5 :: b6 :: b7 :: rest) 0 =
  [(Ftype, FvN b0); (Fcode, FvN b1); (Fchecksum, FvN (be16 b2 b3)); (Fbytes4to8, FvBytes [b4; b5; b6; b7])].
Proof. reflexivity. Qed.

Lemma icmp4_eval t ck rest : ck < 65536 ->
  icmp_spec (icmp4_wire t ck ++ rest) 0 = icmp_cfg (icmp4_wire t 0) ck.
Proof.
  intros C. destruct t as [ty code b5 b6 b7 b8|id sq|code|mtu|code gw|id sq|code|ptr|code|id sq o r tr|id sq o r tr];
    try destruct gw as [[[g0 g1] g2] g3];
    unfold icmp4_wire, ip4_bytes, w16, w32, to_be16, to_be32; cbn [app];
    rewrite icmp_raw, (be16_u16 _ C); reflexivity.
Qed.

Lemma icmp6_eval t ck rest : ck < 65536 ->
  icmp_spec (icmp6_wire t ck ++ rest) 0 = icmp_cfg (icmp6_wire t 0) ck.
Proof.
  intros C. destruct t; unfold icmp6_wire, w16, w32, to_be16, to_be32; cbn [app];
    rewrite icmp_raw, (be16_u16 _ C); reflexivity.
Qed.
