(* Builder/ProofsCk.v -- property C10: the IPv4 header checksum the builder stores
   verifies at a receiver (RFC 1071: the one's complement sum over the covered
   bytes folds to 0xffff), and the IPv4 / IPv6 headers at off_net carry the
   configured fields with length fields that are not truncated.
   The stored value is a Sum16BitWords call sequence; C09 (checksum64_rfc1071)
   turns it into rfc1071 of the bytes the calls cover. *)
From EP Require Import Base.Bytes Checksum.Spec Checksum.Model Checksum.Proofs.
From EP Require Import Roundtrip.Common Roundtrip.CommonProofs.
From EP Require Roundtrip.Tcp Roundtrip.TcpProofs Roundtrip.Ipv4 Roundtrip.Ipv4Proofs.
From EP Require ExtChain.Spec ExtChain.Model ExtChain.Proofs BitFields.Model.
From EP Require Import Builder.Model Builder.Spec Builder.Proofs.
From Coq Require Import ZArith Lia ZifyN ZifyBool.
Local Open Scope N_scope.

Lemma fold16_complement Sm : fold16 (Sm + (65535 - fold16 Sm)) = 65535.
Proof.
  unfold fold16. destruct (N.eqb_spec Sm 0) as [E|E].
  - subst Sm. reflexivity.
  - destruct (N.eqb_spec (Sm + (65535 - ((Sm - 1) mod 65535 + 1))) 0) as [E2|E2]; dmlia.
Qed.
Lemma fold16_ffff_plus Sm : fold16 Sm = 65535 -> fold16 (Sm + 65535) = 65535.
Proof.
  unfold fold16. destruct (N.eqb_spec Sm 0) as [E|E]; [lia|].
  destruct (N.eqb_spec (Sm + 65535) 0) as [E2|E2]; dmlia.
Qed.

Lemma even_len_explicit2 a b (r : bytes) : even_len r -> even_len (a :: b :: r).
Proof. unfold even_len. cbn [length Nat.even]. auto. Qed.
Lemma even_len_nil : even_len []. Proof. reflexivity. Qed.
Lemma even_len_of_len (l : bytes) n : len l = 2 * n -> even_len l.
Proof.
  unfold even_len, len. intros H. assert (E : length l = (2 * N.to_nat n)%nat) by lia.
  rewrite E. rewrite Nat.even_mul. reflexivity.
Qed.

Lemma sum_u16 v : v < 65536 -> sum_be16 (u16_to_be v) = v.
Proof. intros H. unfold u16_to_be. rewrite sum2. apply u16_be_roundtrip. exact H. Qed.

(* a stored checksum that is the RFC value over the other words (or its
   non-zero stand-in 0xffff) makes the receiver's sum fold to 0xffff *)
Lemma verifies_of_stored pre tl ck : even_len pre -> ck < 65536 ->
  (ck = 65535 - fold16 (sum_be16 pre + sum_be16 tl) \/
   (ck = 65535 /\ fold16 (sum_be16 pre + sum_be16 tl) = 65535)) ->
  folds_to_ffff (pre ++ u16_to_be ck ++ tl) = true.
Proof.
  intros E L H. unfold folds_to_ffff. apply N.eqb_eq.
  rewrite sum_be16_app by exact E.
  rewrite sum_be16_app by reflexivity. rewrite sum_u16 by exact L.
  replace (sum_be16 pre + (ck + sum_be16 tl)) with ((sum_be16 pre + sum_be16 tl) + ck) by lia.
  destruct H as [H|[H1 H2]].
  - rewrite H. apply fold16_complement.
  - rewrite H1. apply fold16_ffff_plus. exact H2.
Qed.

(* the two forms in which the builder stores a checksum *)
Lemma stored_plain e ps Sm : Forall piece_ok ps -> pieces_aligned ps -> sum_be16 (pieces_bytes ps) = Sm ->
  checksum64 e ps = 65535 - fold16 Sm.
Proof. intros A B C. rewrite (checksum64_rfc1071 e ps A B). unfold rfc1071. rewrite C. reflexivity. Qed.
Lemma byte_hi v : (v / 256) mod 256 < 256. Proof. apply N.mod_lt. lia. Qed.
Lemma byte_lo v : v mod 256 < 256. Proof. apply N.mod_lt. lia. Qed.
Lemma piece_ok_p2 a b : a < 256 -> b < 256 -> piece_ok (P2 a b).
Proof.
  intros A B. split; [|exact I]. cbn [piece_bytes].
  repeat (apply bytes_ok_explicit_cons; [assumption|]). apply bytes_ok_nil.
Qed.
Lemma piece_ok_p4 a b c d : a < 256 -> b < 256 -> c < 256 -> d < 256 -> piece_ok (P4 a b c d).
Proof.
  intros A B C D. split; [|exact I]. cbn [piece_bytes].
  repeat (apply bytes_ok_explicit_cons; [assumption|]). apply bytes_ok_nil.
Qed.
Lemma piece_ok_slice bs : bytes_ok bs -> piece_ok (PSlice bs).
Proof. intros H. split; [exact H|exact I]. Qed.
Lemma sum_p2be v : v < 65536 -> sum_be16 [(v / 256) mod 256; v mod 256] = v.
Proof. intros H. rewrite sum2. apply u16_be_roundtrip. exact H. Qed.

Import Roundtrip.Ipv4 Roundtrip.Ipv4Proofs.

Lemma ip4_header_verifies e h : wf_ip4 h = true ->
  exists ck hb, ip4_calc_checksum e h = Some ck /\ ck < 65536 /\
    ip4_to_bytes (ip4_set_checksum h ck) = Some hb /\ folds_to_ffff hb = true.
Proof.
  intros W. destruct (wf_ip4_facts h W) as ((R1 & R2 & R3 & R4) & (R5 & R6 & R7 & R8) & (LS & OS & LD & OD) & WO).
  destruct (wf_i4o_facts _ WO) as (OL & OM & BL & BO).
  destruct (len4_explicit _ LS OS) as (s0 & s1 & s2 & s3 & ES & S0 & S1 & S2 & S3).
  destruct (len4_explicit _ LD OD) as (d0 & d1 & d2 & d3 & ED & D0 & D1 & D2 & D3).
  destruct (ip4_calc_checksum_some e h W) as (ck & ECK & LCK).
  pose proof (wf_set_checksum h ck W LCK) as W2.
  destruct (ip4_to_bytes_wf _ W2) as (f & EF & ET).
  destruct (fixed_wf (ip4_set_checksum h ck) ck W2) as (f' & EF' & _ & t0 & t1 & t2 & t3 & u0 & u1 & u2 & u3 & ES' & ED' & FX).
  cbn [ip4_set_checksum i4_header_checksum] in EF. rewrite EF in EF'. apply Some_inj in EF'. subst f'.
  cbn [ip4_set_checksum i4_source i4_destination] in ES', ED'. rewrite ES in ES'. rewrite ED in ED'.
  inversion ES'; inversion ED'; subst t0 t1 t2 t3 u0 u1 u2 u3.
  exists ck. eexists. split; [exact ECK|]. split; [exact LCK|]. split; [exact ET|].
  set (o := take (i4o_len (i4_options h)) (i4o_buf (i4_options h))).
  assert (LO : len o = i4o_len (i4_options h)) by (apply len_take_i4o; exact WO).
  assert (EO : even_len o).
  { apply (even_len_of_len o (i4o_len (i4_options h) / 2)). rewrite LO. clear - OM. dmlia. }
  assert (BOo : bytes_ok o) by (apply bytes_ok_take; exact BO).
  (* byte ranges of the packed bytes *)
  destruct (b0_dec (i4o_len (i4_options h)) OL OM) as (_ & _ & _ & A4 & _).
  destruct (b1_dec (i4_dscp h) (i4_ecn h) R1 R2) as (_ & _ & B3 & _).
  pose proof (frag_hi _ R5) as HI.
  destruct (b6_dec (i4_dont_fragment h) (i4_more_fragments h) _ HI) as (_ & _ & _ & C4 & _).
  rewrite <- byte0_is in A4. rewrite <- byte1_is in B3. rewrite <- byte6_is in C4. cbv zeta in *.
  assert (B7 : ip4_byte7 h < 256) by (unfold ip4_byte7; apply N.mod_lt; lia).
  (* the stored value *)
  unfold ip4_calc_checksum in ECK. rewrite ES, ED, (i4o_as_slice_wf _ WO) in ECK. fold o in ECK.
  apply Some_inj in ECK.
  set (ps := [P2 (ip4_byte0 h) (ip4_byte1 h);
              P2 ((i4_total_len h / 256) mod 256) (i4_total_len h mod 256);
              P2 ((i4_identification h / 256) mod 256) (i4_identification h mod 256);
              P2 (ip4_byte6 h) (ip4_byte7 h); P2 (i4_time_to_live h) (i4_protocol h);
              P4 s0 s1 s2 s3; P4 d0 d1 d2 d3; PSlice o]) in *.
  set (pre := [ip4_byte0 h; ip4_byte1 h; (i4_total_len h / 256) mod 256; i4_total_len h mod 256;
               (i4_identification h / 256) mod 256; i4_identification h mod 256;
               ip4_byte6 h; ip4_byte7 h; i4_time_to_live h; i4_protocol h]).
  set (tl := [s0; s1; s2; s3; d0; d1; d2; d3] ++ o).
  assert (OK : Forall piece_ok ps).
  { subst ps. repeat (apply Forall_cons); try (apply piece_ok_p2; first [assumption|apply byte_hi|apply byte_lo]);
      try (apply piece_ok_p4; assumption); try (apply piece_ok_slice; assumption). apply Forall_nil. }
  assert (AL : pieces_aligned ps).
  { subst ps. cbn [pieces_aligned piece_bytes]. intuition reflexivity. }
  assert (SUM : sum_be16 (pieces_bytes ps) = sum_be16 pre + sum_be16 tl).
  { subst ps pre tl. unfold pieces_bytes. cbn [map concat piece_bytes app].
    rewrite app_nil_r. rewrite !sum_be16_cons2. cbn [sum_be16]. lia. }
  pose proof (stored_plain e ps _ OK AL SUM) as ST. rewrite ECK in ST.
  rewrite FX. cbn [ip4_set_checksum i4_total_len i4_identification i4_time_to_live i4_protocol].
  change (ip4_byte0 (ip4_set_checksum h ck)) with (ip4_byte0 h).
  change (ip4_byte1 (ip4_set_checksum h ck)) with (ip4_byte1 h).
  change (ip4_byte6 (ip4_set_checksum h ck)) with (ip4_byte6 h).
  change (ip4_byte7 (ip4_set_checksum h ck)) with (ip4_byte7 h).
  cbn [ip4_set_checksum i4_options]. fold o.
  change ([ip4_byte0 h; ip4_byte1 h; (i4_total_len h / 256) mod 256; i4_total_len h mod 256;
           (i4_identification h / 256) mod 256; i4_identification h mod 256; ip4_byte6 h; ip4_byte7 h;
           i4_time_to_live h; i4_protocol h; (ck / 256) mod 256; ck mod 256;
           s0; s1; s2; s3; d0; d1; d2; d3] ++ o)
    with (pre ++ u16_to_be ck ++ tl).
  apply verifies_of_stored; [reflexivity|exact LCK|left; exact ST].
Qed.

(* IPv4: the header at off_net is the RFC 791 encoding (C08: ip4_spec) of the
   configured header with total length = the actual length, protocol = the number
   of what follows, and a header checksum that verifies *)
Theorem ipv4_consistent e c p bs h x : cfg_wf c = true -> build e c p = BOk bs -> c_net c = NtIpv4 h x ->
  let hf := v4_final e h x (c_transport c) (len p) in
  wf_ip4 hf = true /\
  ip4_to_bytes hf = Some (take (ip4_header_len h) (drop (off_net c) bs)) /\
  verifies (take (ip4_header_len h) (drop (off_net c) bs)) /\
  i4_total_len hf = len bs - off_net c /\ off_net c + ip4_header_len h <= len bs /\ len bs - off_net c < 65536 /\
  i4_protocol hf = snd (XM.set_next_headers4 x (tr_ip_number (c_transport c))) /\
  i4_source hf = i4_source h /\ i4_destination hf = i4_destination h /\
  i4_time_to_live hf = i4_time_to_live h /\ i4_identification hf = i4_identification h /\
  i4_dscp hf = i4_dscp h /\ i4_ecn hf = i4_ecn h /\ i4_options hf = i4_options h /\
  i4_dont_fragment hf = i4_dont_fragment h /\ i4_more_fragments hf = i4_more_fragments h /\
  i4_fragment_offset hf = i4_fragment_offset h.
Proof.
  intros W E EN. cbv zeta. destruct (cfg_wf_inv c W) as (WL & WV & WN & WT & WS).
  pose proof (build_size e c p bs W E) as LEN.
  destruct (build_inv e c p bs W E) as (nb & xb & tb & EB & P).
  destruct (built_offsets e c p nb xb tb bs WL P EB) as (_ & DN & _).
  destruct P as (LN & _ & _ & P). unfold ip_header_len in LN. rewrite EN in P, LN, WN.
  destruct P as (ET & _ & EF & _).
  unfold final_size, net_len, transport_len in LEN. rewrite EN in LEN.
  cbn [net_wf] in WN. apply andb_true_iff in WN. destruct WN as [WH WX].
  destruct (v4_final_wf e h x (c_transport c) (len p) WH WX WT) as (WF & ck & ECK & LCK).
  destruct (v4_fits h x _ _ WH EF) as [_ FIT].
  rewrite DN, (take_app_len nb) by (symmetry; exact LN).
  split; [exact WF|]. split; [exact ET|].
  split.
  { (* the stored header checksum *)
    destruct (snh4_facts x _ WX (tr_ip_number_lt _ WT)) as (_ & P & _).
    pose proof (wf_set_len_proto h _ _ WH (as_u16_lt (ip4_header_len h + v4_value x (c_transport c) (len p))) P) as W1.
    destruct (ip4_header_verifies e _ W1) as (ck' & hb' & ECK' & _ & EB' & V).
    rewrite ECK in ECK'. apply Some_inj in ECK'. subst ck'.
    unfold v4_final in ET. rewrite ECK in ET. rewrite ET in EB'. apply Some_inj in EB'. subst hb'. exact V. }
  unfold v4_final. rewrite ECK.
  cbn [ip4_set_checksum ip4_set_len_proto i4_total_len i4_protocol i4_source i4_destination i4_time_to_live
       i4_identification i4_dscp i4_ecn i4_options i4_dont_fragment i4_more_fragments i4_fragment_offset].
  rewrite (as_u16_small _ FIT). clear - LEN FIT. unfold off_net, v4_value in *.
  repeat split; try reflexivity; lia.
Qed.

(* IPv6: payload length = actual length behind the fixed header, next header =
   the first header of the chain (or the transport number) *)
Theorem ipv6_consistent e c p bs h x : cfg_wf c = true -> build e c p = BOk bs -> c_net c = NtIpv6 h x ->
  let hf := v6_final h x (c_transport c) (len p) in
  take 40 (drop (off_net c) bs) = BitFields.Model.Ipv6Header_to_bytes hf /\
  off_net c + 40 <= len bs /\
  BitFields.Model.v6_payload_length hf = len bs - off_net c - 40 /\ len bs - off_net c - 40 < 65536 /\
  BitFields.Model.v6_next_header hf = snd (XM.set_next_headers x (tr_ip_number (c_transport c))) /\
  BitFields.Model.v6_source hf = BitFields.Model.v6_source h /\
  BitFields.Model.v6_destination hf = BitFields.Model.v6_destination h /\
  BitFields.Model.v6_hop_limit hf = BitFields.Model.v6_hop_limit h /\
  BitFields.Model.v6_traffic_class hf = BitFields.Model.v6_traffic_class h /\
  BitFields.Model.v6_flow_label hf = BitFields.Model.v6_flow_label h.
Proof.
  intros W E EN. cbv zeta. destruct (cfg_wf_inv c W) as (WL & WV & WN & WT & WS).
  pose proof (build_size e c p bs W E) as LEN.
  destruct (build_inv e c p bs W E) as (nb & xb & tb & EB & P).
  destruct (built_offsets e c p nb xb tb bs WL P EB) as (_ & DN & _).
  destruct P as (LN & _ & _ & P). unfold ip_header_len in LN. rewrite EN in P, LN.
  destruct P as (EH & _ & EF & _).
  unfold final_size, net_len, transport_len in LEN. rewrite EN in LEN.
  rewrite DN, (take_app_len nb) by (symmetry; exact LN).
  split; [exact EH|].
  unfold v6_final, ip6_set_len_next.
  cbn [BitFields.Model.v6_payload_length BitFields.Model.v6_next_header BitFields.Model.v6_source
       BitFields.Model.v6_destination BitFields.Model.v6_hop_limit BitFields.Model.v6_traffic_class
       BitFields.Model.v6_flow_label].
  rewrite (as_u16_small (v6_size x (c_transport c) (len p))) by lia. clear - LEN EF. unfold off_net, v6_size in *.
  repeat split; try reflexivity; lia.
Qed.

(* the crate's IPv4 header decoder (Roundtrip model, C08) applied at off_net returns the
   configured header with the derived fields filled in, and the rest of the packet *)
Theorem ipv4_header_decodes e c p bs h x : cfg_wf c = true -> build e c p = BOk bs -> c_net c = NtIpv4 h x ->
  ip4_from_slice (drop (off_net c) bs)
  = Ok (ip4_norm (v4_final e h x (c_transport c) (len p)),
        drop (off_net c + ip4_header_len h) bs).
Proof.
  intros W E EN.
  destruct (ipv4_consistent e c p bs h x W E EN) as (WF & ET & _ & _ & LE & _).
  destruct (ip4_dec_enc _ (drop (off_net c + ip4_header_len h) bs) WF) as (enc & EE & DEC & _).
  rewrite ET in EE. apply Some_inj in EE. subst enc.
  replace (drop (off_net c + ip4_header_len h) bs) with (drop (ip4_header_len h) (drop (off_net c) bs)) in DEC |- *
    by (apply drop_drop).
  rewrite take_drop in DEC. exact DEC.
Qed.

