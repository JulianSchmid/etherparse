(* Builder/ProofsLink.v -- property C10: "parsing recovers the supplied
   addresses / tags / ports" stated through DECODERS.  The crate's header decoders (C08 models
   Roundtrip/Eth.v, Sll.v, Vlan.v, Ipv6.v, Arp.v, Udp.v: *_from_slice = slice check + to_header)
   applied to the built bytes at the computed offsets return the configured header structs with
   the derived fields (ether types, lengths, next header) set, and the rest of the packet.
   (IPv4: ipv4_header_decodes, TCP: tcp_decodes, ICMP: icmp4_value_back / icmp6_value_back,
   extension headers: layers_as_configured.) *)
From EP Require Import Base.Bytes Checksum.Spec Checksum.Model Checksum.Proofs.
From EP Require Import Checksum.ProtoTypes Checksum.ProtoSpec.
From EP Require Import Roundtrip.Common Roundtrip.CommonProofs.
From EP Require Roundtrip.Tcp Roundtrip.TcpProofs Roundtrip.Ipv4 Roundtrip.Ipv4Proofs.
From EP Require Roundtrip.Eth Roundtrip.EthProofs Roundtrip.Sll Roundtrip.SllProofs Roundtrip.Vlan Roundtrip.VlanProofs.
From EP Require Roundtrip.Ipv6 Roundtrip.Ipv6Proofs Roundtrip.Arp Roundtrip.ArpProofs Roundtrip.Udp Roundtrip.UdpProofs.
From EP Require CtlMsg.Spec Roundtrip.Icmp4 Roundtrip.Icmp6.
From EP Require ExtChain.Spec ExtChain.Model ExtChain.View ExtChain.Proofs BitFields.Model.
From EP Require Import Builder.Model Builder.Spec Builder.Proofs Builder.ProofsCk Builder.SpecX Builder.ProofsTr
  Builder.ProofsNx Builder.ProofsCrate.
From Coq Require Import ZArith Lia ZifyN ZifyBool.
Local Open Scope N_scope.

Definition eth_of (s d : bytes) (et : N) : Eth.Ethernet2Header :=
  {| Eth.eth_source := s; Eth.eth_destination := d; Eth.eth_ether_type := et |}.
(* PacketBuilder::linux_sll: arp_hrd_type = ArpHardwareId::ETHERNET, protocol type = the ether type *)
Definition sll_of (pt vl : N) (a : bytes) (et : N) : Sll.LinuxSllHeader :=
  {| Sll.sll_packet_type := pt; Sll.sll_arp_hrd_type := 1; Sll.sll_sender_address_valid_length := vl;
     Sll.sll_sender_address := a; Sll.sll_protocol_type := Sll.SllEtherType et |}.
Definition arp_of (a : ArpPacket) : Arp.ArpPacket :=
  {| Arp.arp_hw_addr_type := arp_hw_addr_type a; Arp.arp_proto_addr_type := arp_proto_addr_type a;
     Arp.arp_hw_addr_size := len (arp_sender_hw a); Arp.arp_proto_addr_size := len (arp_sender_proto a);
     Arp.arp_operation := arp_operation a;
     Arp.arp_sender_hw_addr_buf := arp_sender_hw a; Arp.arp_sender_protocol_addr_buf := arp_sender_proto a;
     Arp.arp_target_hw_addr_buf := arp_target_hw a; Arp.arp_target_protocol_addr_buf := arp_target_proto a |}.
Definition udp_of (sp dp l ck : N) : Udp.UdpHeader :=
  {| Udp.udp_source_port := sp; Udp.udp_destination_port := dp; Udp.udp_length := l; Udp.udp_checksum := ck |}.

Lemma eth_of_wf s d et : link_wf (LkEthernet2 s d) = true -> et < 65536 -> Eth.wf_eth (eth_of s d et) = true.
Proof.
  cbn [link_wf]. unfold Eth.wf_eth, eth_of. cbn. intros W E. apply N.ltb_lt in E. rewrite E.
  rewrite !andb_true_iff in W. rewrite !andb_true_iff. intuition.
Qed.

Lemma sll_of_wf pt vl a et : link_wf (LkLinuxSll pt vl a) = true ->
  et = 2048 \/ et = 34525 \/ et = 2054 -> Sll.wf_sll (sll_of pt vl a et) = true.
Proof.
  cbn [link_wf]. intros W E. bsplit W.
  unfold Sll.wf_sll, Sll.sll_in_range, Sll.sll_consistent, sll_of.
  cbn [Sll.sll_packet_type Sll.sll_arp_hrd_type Sll.sll_sender_address_valid_length Sll.sll_sender_address
       Sll.sll_protocol_type Sll.sll_protocol_u16].
  repeat match goal with H : bytes_okb _ = true |- _ => rewrite H; clear H end.
  repeat match goal with H : len _ = 8 |- _ => rewrite H; clear H end.
  replace (pt <=? 7) with true by (symmetry; apply N.leb_le; lia).
  replace (vl <? 65536) with true by (symmetry; apply N.ltb_lt; lia).
  destruct E as [-> | [-> | ->]]; reflexivity.
Qed.

Lemma arp_of_wf a : arp_wf a = true -> Arp.wf_arp (arp_of a) = true.
Proof.
  unfold arp_wf. intros W. bsplit W.
  unfold Arp.wf_arp, Arp.arp_wf_buf, arp_of.
  cbn [Arp.arp_hw_addr_type Arp.arp_proto_addr_type Arp.arp_operation Arp.arp_hw_addr_size Arp.arp_proto_addr_size
       Arp.arp_sender_hw_addr_buf Arp.arp_sender_protocol_addr_buf Arp.arp_target_hw_addr_buf
       Arp.arp_target_protocol_addr_buf].
  repeat match goal with H : bytes_okb _ = true |- _ => rewrite H; clear H end.
  repeat match goal with H : len _ = len _ |- _ => rewrite <- H; clear H end.
  rewrite !N.leb_refl.
  repeat match goal with H : ?x < ?y |- _ =>
    replace (x <? y) with true by (symmetry; apply N.ltb_lt; exact H);
    try replace (x <=? 255) with true by (symmetry; apply N.leb_le; lia); clear H end.
  reflexivity.
Qed.

Lemma arp_enc_of a : arp_wf a = true -> Arp.arp_to_bytes (arp_of a) = Some (arp_to_bytes a) /\ Arp.arp_norm (arp_of a) = arp_of a.
Proof.
  intros W. rewrite (ArpProofs.arp_to_bytes_wf _ (arp_of_wf a W)).
  unfold arp_wf in W. bsplit W.
  assert (T : forall l : bytes, take (len l) l = l) by (intros l; apply take_all; lia).
  split.
  - f_equal. unfold ArpProofs.arp_enc, ArpProofs.arp_sh, ArpProofs.arp_sp, ArpProofs.arp_th, ArpProofs.arp_tp,
      Arp.arp_first8, arp_of, arp_to_bytes.
    cbn [Arp.arp_hw_addr_type Arp.arp_proto_addr_type Arp.arp_operation Arp.arp_hw_addr_size Arp.arp_proto_addr_size
         Arp.arp_sender_hw_addr_buf Arp.arp_sender_protocol_addr_buf Arp.arp_target_hw_addr_buf
         Arp.arp_target_protocol_addr_buf].
    rewrite !T.
    repeat match goal with H : len _ = len _ |- _ => rewrite H; clear H end.
    rewrite !T. rewrite <- !app_assoc. reflexivity.
  - unfold Arp.arp_norm, arp_of.
    cbn [Arp.arp_hw_addr_type Arp.arp_proto_addr_type Arp.arp_operation Arp.arp_hw_addr_size Arp.arp_proto_addr_size
         Arp.arp_sender_hw_addr_buf Arp.arp_sender_protocol_addr_buf Arp.arp_target_hw_addr_buf
         Arp.arp_target_protocol_addr_buf].
    rewrite !T.
    match goal with H : len (arp_sender_hw a) = len _ |- _ => rewrite H at 2 end.
    match goal with H : len (arp_sender_proto a) = len _ |- _ => rewrite H at 2 end.
    rewrite !T. reflexivity.
Qed.

Definition net_et (c : cfg) : N := net_ether_type (c_net c).

Theorem link_values_back e c p bs : cfg_wf c = true -> build e c p = BOk bs ->
  (* link header: addresses / packet type as supplied, ether type = the layer that follows *)
  match c_link c with
  | LkNone => True
  | LkEthernet2 s d =>
      Eth.eth_from_slice bs = Ok (eth_of s d (link_announces c), drop 14 bs)
  | LkLinuxSll pt vl a =>
      Sll.sll_from_slice bs = Ok (sll_of pt vl a (net_et c), drop 16 bs)
  end /\
  (* VLAN tags: pcp / dei / id as supplied, ether type = the layer that follows *)
  match c_vlan c with
  | VlNone => True
  | VlSingle v =>
      Vlan.vl_from_slice (drop (off_vlan c) bs)
      = Ok (vl_of (vlan_set_ether_type v (net_et c)), drop (off_vlan c + 4) bs)
  | VlDouble o i =>
      Vlan.vl_from_slice (drop (off_vlan c) bs)
      = Ok (vl_of (vlan_set_ether_type o 33024), drop (off_vlan c + 4) bs) /\
      Vlan.vl_from_slice (drop (off_vlan c + 4) bs)
      = Ok (vl_of (vlan_set_ether_type i (net_et c)), drop (off_vlan c + 8) bs)
  end /\
  (* IPv6 header / ARP packet (IPv4: ipv4_header_decodes) *)
  match c_net c with
  | NtIpv4 _ _ => True
  | NtIpv6 h x =>
      Ipv6.ip6_from_slice (drop (off_net c) bs)
      = Ok (ip6_of (v6_final h x (c_transport c) (len p)), drop (off_net c + 40) bs)
  | NtArp a => Arp.arp_from_slice (drop (off_net c) bs) = Ok (arp_of a)
  end /\
  (* UDP header: ports as supplied, length = 8 + |payload|, rest = the payload *)
  match c_net c, c_transport c with
  | NtArp _, _ => True
  | _, TrUdp sp dp =>
      exists ck, ck < 65536 /\
        Udp.udp_from_slice (drop (off_transport c) bs) = Ok (udp_of sp dp (8 + len p) ck, p)
  | _, _ => True
  end.
Proof.
  intros WF E. destruct (cfg_wf_inv c WF) as (WL & WV & WN & WT & WS).
  pose proof (link_bytes_len c WL) as LL. pose proof (vlan_bytes_len c) as LV.
  pose proof (net_et_lt (c_net c)) as NE.
  destruct (build_inv e c p bs WF E) as (nb & xb & tb & EB0 & P).
  destruct (built_offsets e c p nb xb tb bs WL P EB0) as (_ & DN & _).
  set (rest := nb ++ xb ++ tb ++ p) in EB0.
  assert (NET : net_et c = 2048 \/ net_et c = 34525 \/ net_et c = 2054).
  { unfold net_et. destruct (c_net c); cbn; auto. }
  split; [|split; [|split]].
  - (* link *)
    assert (LA : link_announces c < 65536) by (unfold link_announces; destruct (c_vlan c); lia).
    unfold link_bytes, link_len in *. fold (net_et c) in *.
    destruct (c_link c) as [|s d|pt vl a] eqn:EL; [exact I| |].
    + pose proof (eth_of_wf s d _ WL LA) as WE.
      destruct (EthProofs.eth_dec_enc _ (vlan_bytes c ++ rest) WE) as (D & _).
      assert (EQ : eth_to_bytes s d (link_announces c) = Eth.eth_to_bytes (eth_of s d (link_announces c))) by reflexivity.
      unfold link_announces in EQ at 1. fold (net_et c) in EQ.
      replace (match c_vlan c with VlNone => net_et c | VlSingle _ => 33024 | VlDouble _ _ => 34984 end)
        with (match c_vlan c with VlSingle _ => 33024 | VlDouble _ _ => 34984 | VlNone => net_et c end) in EQ
        by (destruct (c_vlan c); reflexivity).
      rewrite EQ in EB0, LL. rewrite EB0, D. do 2 f_equal.
      symmetry. apply drop_app_len. symmetry. exact LL.
    + pose proof (sll_of_wf pt vl a _ WL NET) as WE.
      destruct (SllProofs.sll_dec_enc _ (vlan_bytes c ++ rest) WE) as (D & _).
      change (sll_to_bytes pt vl a (net_et c)) with (Sll.sll_to_bytes (sll_of pt vl a (net_et c))) in EB0, LL.
      rewrite EB0, D. do 2 f_equal. symmetry. apply drop_app_len. symmetry. exact LL.
  - (* VLAN *)
    assert (DV : drop (off_vlan c) bs = vlan_bytes c ++ rest).
    { unfold off_vlan. rewrite EB0. apply drop_app_len. symmetry. exact LL. }
    assert (DD : forall k, drop (off_vlan c + k) bs = drop k (vlan_bytes c ++ rest)).
    { intros k. rewrite <- DV, drop_drop. reflexivity. }
    rewrite !DD, DV. clear DD DV. unfold vlan_bytes in *. fold (net_et c) in *.
    destruct (c_vlan c) as [|v|o i]; [exact I| |]; cbn [vlan_wf] in WV.
    + rewrite vlan_c15_is_c08.
      destruct (VlanProofs.vl_dec_enc _ rest (vl_of_wf v _ WV NE)) as (D & _). rewrite D.
      reflexivity.
    + apply andb_true_iff in WV. destruct WV as [W1 W2]. rewrite !vlan_c15_is_c08, <- app_assoc.
      destruct (VlanProofs.vl_dec_enc _ (Vlan.vl_to_bytes (vl_of (vlan_set_ether_type i (net_et c))) ++ rest)
                  (vl_of_wf o 33024 W1 ltac:(lia))) as (D1 & _).
      destruct (VlanProofs.vl_dec_enc _ rest (vl_of_wf i _ W2 NE)) as (D2 & _).
      rewrite D1. rewrite (drop_app_len (Vlan.vl_to_bytes (vl_of (vlan_set_ether_type o 33024)))) by reflexivity.
      rewrite D2. split; reflexivity.
  - (* net *)
    destruct (c_net c) as [h x|h x|a] eqn:EN; cbn [net_wf] in WN; [exact I| |].
    + apply andb_true_iff in WN. destruct WN as [WH WX].
      destruct P as (_ & _ & _ & P). rewrite EN in P. destruct P as (-> & _).
      destruct (XP.set_next_headers_facts x _ WX (tr_ip_number_lt _ WT)) as (_ & NH & _).
      assert (W6 : Ipv6.wf_ip6 (ip6_of (v6_final h x (c_transport c) (len p))) = true).
      { apply ip6_of_wf; [exact WH| |exact NH].
        unfold v6_final, ip6_set_len_next. cbn [BitFields.Model.v6_payload_length]. apply as_u16_lt. }
      pose proof (Ipv6Proofs.len_ip6_to_bytes _ W6) as L6.
      destruct (Ipv6Proofs.ip6_dec_enc _ (xb ++ tb ++ p) W6) as (D & _).
      rewrite ip6_c15_is_c08 in DN.
      rewrite <- drop_drop, DN, D. do 2 f_equal. symmetry. apply drop_app_len. symmetry. exact L6.
    + destruct P as (_ & _ & _ & P). rewrite EN in P. destruct P as (-> & -> & ->).
      rewrite DN. cbn [app]. destruct (arp_enc_of a WN) as (EE & NM).
      destruct (ArpProofs.arp_dec_enc _ p (arp_of_wf a WN)) as (en & E1 & _ & D & _).
      rewrite EE in E1. apply Some_inj in E1. subst en. rewrite D, NM. reflexivity.
  - (* UDP *)
    pose proof (transport_is_rfc_layout e c p bs WF E) as TL.
    destruct (c_transport c) as [n|sp dp|t|k|k] eqn:ET; try (destruct (c_net c); exact I).
    cbn [th_of tr_header_len tr_wf] in TL, WT. bsplit WT.
    assert (FIN : 8 + len p <= 65535 ->
      (exists ck, ck < 65536 /\ drop (off_transport c) bs =
          th_wire (THUdp {| u_sport := sp; u_dport := dp; u_length := 8 + len p |}) ck ++ p) ->
      exists ck, ck < 65536 /\ Udp.udp_from_slice (drop (off_transport c) bs) = Ok (udp_of sp dp (8 + len p) ck, p)).
    { intros BND (ck & L & DR). exists ck. split; [exact L|]. rewrite DR.
      change (th_wire (THUdp {| u_sport := sp; u_dport := dp; u_length := 8 + len p |}) ck)
        with (Udp.udp_to_bytes (udp_of sp dp (8 + len p) ck)).
      apply UdpProofs.udp_dec_enc. unfold Udp.wf_udp, udp_of. cbn.
      repeat match goal with H : ?x < ?y |- _ => replace (x <? y) with true by (symmetry; apply N.ltb_lt; exact H); clear H end.
      replace (8 + len p <? 65536) with true by (symmetry; apply N.ltb_lt; lia). reflexivity. }
    destruct (c_net c) as [h x|h x|a] eqn:EN; [| |exact I];
      pose proof (build_parts_fits e c p nb xb tb WF P ltac:(intros a; rewrite EN; discriminate)) as BND;
      rewrite ET in BND; cbn [tr_header_len] in BND; (apply FIN; [exact BND|exact TL]).
Qed.
