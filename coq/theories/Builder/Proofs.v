(* Builder/Proofs.v -- property C10: what a built packet consists of (`build_cases`,
   `build_inv`), no panic, size(), and the characterisation of the error outcomes.
   Composes C08 (Roundtrip: Ipv4Header / TcpHeader to_bytes), C09 (Checksum) and
   C12 (ExtChain: set_next_headers / write). *)
From EP Require Import Base.Bytes Checksum.Spec Checksum.Model Checksum.Proofs.
From EP Require Import Roundtrip.Common Roundtrip.CommonProofs Roundtrip.LinkNetLemmas.
From EP Require Roundtrip.Tcp Roundtrip.TcpProofs Roundtrip.Ipv4 Roundtrip.Ipv4Proofs.
From EP Require CtlMsg.Spec Roundtrip.Icmp4 Roundtrip.Icmp4Proofs Roundtrip.Icmp6 Roundtrip.Icmp6Proofs.
From EP Require Checksum.ProtoTypes Checksum.Proto.
From EP Require ExtChain.Spec ExtChain.Model ExtChain.Proofs BitFields.Model.
From EP Require Import Builder.Model Builder.Spec.
From Coq Require Import ZArith Lia ZifyN ZifyBool.
Local Open Scope N_scope.

Module XM := EP.ExtChain.Model.
Module XP := EP.ExtChain.Proofs.

Lemma as_u16_lt v : as_u16 v < 65536.
Proof. unfold as_u16. apply N.mod_lt. lia. Qed.
Lemma as_u16_small v : v < 65536 -> as_u16 v = v.
Proof. unfold as_u16. intros H. apply N.mod_small. exact H. Qed.
Lemma as_u32_small v : v < 4294967296 -> as_u32 v = v.
Proof. unfold as_u32. intros H. apply N.mod_small. exact H. Qed.

Lemma checksum64_le e ps : checksum64 e ps <= 65535.
Proof.
  unfold checksum64.
  assert (H : U64.ones_complement (sum_pieces64 e 0 ps) <= 65535) by (unfold U64.ones_complement; lia).
  destruct (to_be_spec e _ H) as (_ & T & _). exact T.
Qed.
Lemma checksum64_no_zero_le e ps : checksum64_no_zero e ps <= 65535.
Proof.
  unfold checksum64_no_zero, U64.ones_complement_with_no_zero.
  set (v := U64.ones_complement _).
  assert (H : v <= 65535) by (subst v; unfold U64.ones_complement; lia).
  destruct (v =? 0).
  - rewrite to_be_ffff. lia.
  - destruct (to_be_spec e _ H) as (_ & T & _). exact T.
Qed.

Lemma len_u16 v : len (u16_to_be v) = 2. Proof. reflexivity. Qed.

Lemma len6_of (l : bytes) n : (len l =? n) = true -> len l = n.
Proof. apply N.eqb_eq. Qed.

Import Roundtrip.Ipv4 Roundtrip.Ipv4Proofs.

Lemma wf_set_len_proto h tl p : wf_ip4 h = true -> tl < 65536 -> p < 256 ->
  wf_ip4 (ip4_set_len_proto h tl p) = true.
Proof.
  unfold wf_ip4. cbn [ip4_set_len_proto i4_dscp i4_ecn i4_total_len i4_identification i4_fragment_offset
      i4_time_to_live i4_protocol i4_header_checksum i4_source i4_destination i4_options].
  intros W H1 H2. apply N.ltb_lt in H1, H2. rewrite H1, H2.
  rewrite !andb_true_iff in W. rewrite !andb_true_iff. intuition.
Qed.

Lemma ip4_calc_checksum_some e h : wf_ip4 h = true ->
  exists ck, ip4_calc_checksum e h = Some ck /\ ck < 65536.
Proof.
  intros W. destruct (wf_ip4_facts h W) as (_ & _ & (LS & OS & LD & OD) & WO).
  destruct (len4_explicit _ LS OS) as (s0 & s1 & s2 & s3 & ES & _).
  destruct (len4_explicit _ LD OD) as (d0 & d1 & d2 & d3 & ED & _).
  unfold ip4_calc_checksum. rewrite ES, ED, (i4o_as_slice_wf _ WO).
  eexists. split; [reflexivity|].
  eapply N.le_lt_trans; [apply checksum64_le|lia].
Qed.

Lemma snh4_facts x n : XM.exts4_valid x = true -> n < 256 ->
  XM.exts4_valid (fst (XM.set_next_headers4 x n)) = true /\
  snd (XM.set_next_headers4 x n) < 256 /\
  XM.header_len4 (fst (XM.set_next_headers4 x n)) = XM.header_len4 x.
Proof.
  intros V Hn. destruct x as [[a|]]; cbn in *.
  - split; [|split; [unfold XM.AUTH; lia|reflexivity]].
    unfold XM.exts4_valid, XM.auth_valid in *. cbn in *.
    apply N.ltb_lt in Hn. rewrite Hn. rewrite !andb_true_iff in V. rewrite !andb_true_iff. intuition.
  - split; [reflexivity|split; [exact Hn|reflexivity]].
Qed.

Lemma tr_ip_number_lt t : tr_wf t = true -> tr_ip_number t < 256.
Proof. destruct t; cbn; intros W; lia. Qed.

Lemma wf_tcp_set_checksum t ck : Tcp.wf_tcp t = true -> ck < 65536 ->
  Tcp.wf_tcp (tcp_set_checksum t ck) = true.
Proof.
  unfold Tcp.wf_tcp, tcp_set_checksum. cbn. intros W H. apply N.ltb_lt in H. rewrite H.
  rewrite !andb_true_iff in W. rewrite !andb_true_iff. intuition.
Qed.

Lemma tcp_finish_ok t ck : Tcp.wf_tcp t = true -> ck <= 65535 ->
  tcp_finish t ck =
    TOk (Tcp.fixed_bytes (tcp_set_checksum t ck)
         ++ take (Tcp.o_len (Tcp.options t)) (Tcp.o_buf (Tcp.options t))).
Proof.
  intros W H. unfold tcp_finish.
  rewrite (TcpProofs.to_bytes_wf (tcp_set_checksum t ck)) by (apply wf_tcp_set_checksum; [assumption|lia]).
  reflexivity.
Qed.

Lemma tcp_header_len_le t : Tcp.wf_tcp t = true -> Tcp.header_len t <= 60.
Proof.
  intros W. destruct (TcpProofs.wf_tcp_facts t W) as (_ & _ & _ & _ & _ & _ & _ & WO).
  destruct (TcpProofs.opt_wf_facts _ WO) as (OL & _). unfold Tcp.header_len. lia.
Qed.

(* ICMP: header lengths and serialisation, from the C08 models *)
Lemma icmp4_hl_cases t : Icmp4.icmp4_type_header_len t = 8 \/ Icmp4.icmp4_type_header_len t = 20.
Proof. destruct t; cbn [Icmp4.icmp4_type_header_len]; auto. Qed.
Lemma icmp4_hl_bounds t : 8 <= Icmp4.icmp4_type_header_len t /\ Icmp4.icmp4_type_header_len t <= 20.
Proof. destruct (icmp4_hl_cases t) as [-> | ->]; lia. Qed.
Lemma icmp6_hl t : Icmp6.icmp6_type_header_len t = 8.
Proof. destruct t; reflexivity. Qed.

Lemma icmp4_emit_ok e t p : exists b, icmp4_emit e t p = Some b /\ len b = Icmp4.icmp4_type_header_len t.
Proof.
  unfold icmp4_emit.
  destruct (Icmp4Proofs.icmp4_ser_agree
              {| Icmp4.icmp4_type := t;
                 Icmp4.icmp4_checksum := Checksum.Proto.icmp4_calc_checksum e (c09_icmp4 t) p |} [])
    as (b & E & _ & L).
  exists b. split; [exact E|exact L].
Qed.
Lemma icmp6_to_bytes_ok t ck :
  exists b, Icmp6.icmp6_to_bytes {| Icmp6.icmp6_type := t; Icmp6.icmp6_checksum := ck |} = Some b /\ len b = 8.
Proof.
  destruct (Icmp6Proofs.icmp6_ser_agree {| Icmp6.icmp6_type := t; Icmp6.icmp6_checksum := ck |} [])
    as (b & E & _ & L).
  exists b. split; [exact E|]. rewrite L. unfold Icmp6.icmp6_header_len. cbn [Icmp6.icmp6_type]. apply icmp6_hl.
Qed.
Lemma icmp6_ck_ok e t s d p : len p <= 4294967287 ->
  exists ck, Checksum.Proto.icmp6_calc_checksum e (c09_icmp6 t) s d p = ProtoTypes.COk ck /\ ck <= 65535.
Proof.
  intros L. unfold Checksum.Proto.icmp6_calc_checksum, Checksum.Proto.icmp6_header_len.
  change (Checksum.Proto.U32MAX - 8) with 4294967287.
  replace (4294967287 <? len p) with false by (symmetry; apply N.ltb_ge; exact L).
  eexists. split; [reflexivity|]. apply checksum64_le.
Qed.

Lemma tr_header_len_le t : tr_wf t = true -> tr_header_len t <= 60.
Proof.
  destruct t as [n|sp dp|h|k|k]; cbn [tr_header_len tr_wf]; intros W; try lia.
  - apply tcp_header_len_le. exact W.
  - pose proof (icmp4_hl_bounds k). lia.
  - rewrite icmp6_hl. lia.
Qed.

Definition is_icmpv6 (t : transport_cfg) : bool := match t with TrIcmpv6 _ => true | _ => false end.

Lemma tr_ipv4_ok e s d t ul p :
  len s = 4 -> len d = 4 -> tr_wf t = true -> is_icmpv6 t = false -> tr_header_len t + len p <= 65515 ->
  exists tb, tr_ipv4 e s d t ul p = TOk tb /\ len tb = tr_header_len t.
Proof.
  intros LS LD W NI F.
  destruct (LinkNetLemmas.len4_explicit s LS) as (s0 & s1 & s2 & s3 & ->).
  destruct (LinkNetLemmas.len4_explicit d LD) as (d0 & d1 & d2 & d3 & ->).
  destruct t as [n|sp dp|h|k|k]; cbn [tr_ipv4 tr_header_len] in *; try discriminate.
  - eexists; split; reflexivity.
  - rewrite (ltb_false 65527 (len p)) by lia.
    cbn [p4_of]. eexists; split; reflexivity.
  - pose proof (tcp_header_len_le h W) as HL.
    rewrite (ltb_false 65535 (Tcp.header_len h)) by lia.
    rewrite (ltb_false (65535 - Tcp.header_len h) (len p)) by lia.
    cbn [p4_of]. rewrite (TcpProofs.as_slice_wf h W).
    rewrite tcp_finish_ok by (try assumption; apply checksum64_le).
    eexists; split; [reflexivity|].
    rewrite len_app, TcpProofs.len_fixed, (TcpProofs.len_take_opts h W). reflexivity.
  - destruct (icmp4_emit_ok e k p) as (b & E & L). rewrite E. eexists; split; [reflexivity|exact L].
Qed.

Lemma p16_of_len l : len l = 16 -> p16_of l = Some (P16 l).
Proof. intros H. unfold p16_of. rewrite H. reflexivity. Qed.

Lemma tr_ipv6_ok e s d t ul p :
  len s = 16 -> len d = 16 ->
  tr_wf t = true -> tr_header_len t + len p <= 65535 ->
  exists tb, tr_ipv6 e s d t ul p = TOk tb /\ len tb = tr_header_len t.
Proof.
  intros LS LD W F. destruct t as [n|sp dp|h|k|k]; cbn [tr_ipv6 tr_header_len] in *.
  - eexists; split; reflexivity.
  - rewrite (ltb_false 4294967287 (len p)) by lia.
    rewrite !p16_of_len by assumption. eexists; split; reflexivity.
  - pose proof (tcp_header_len_le h W) as HL.
    rewrite (ltb_false 4294967295 (Tcp.header_len h)) by lia.
    rewrite (ltb_false (4294967295 - Tcp.header_len h) (len p)) by lia.
    rewrite !p16_of_len by assumption. rewrite (TcpProofs.as_slice_wf h W).
    rewrite tcp_finish_ok by (try assumption; apply checksum64_le).
    eexists; split; [reflexivity|].
    rewrite len_app, TcpProofs.len_fixed, (TcpProofs.len_take_opts h W). reflexivity.
  - destruct (icmp4_emit_ok e k p) as (b & E & L). rewrite E. eexists; split; [reflexivity|exact L].
  - rewrite (icmp6_hl k) in *. rewrite !p16_of_len by assumption.
    destruct (icmp6_ck_ok e k s d p) as (ck & EC & _); [lia|]. rewrite EC.
    destruct (icmp6_to_bytes_ok k ck) as (b & E & L).
    rewrite E. eexists; split; [reflexivity|exact L].
Qed.

Lemma ip6_wf_inv h : ip6_wf h = true ->
  BitFields.Model.v6_traffic_class h < 256 /\ BitFields.Model.v6_flow_label h < 1048576 /\
  BitFields.Model.v6_hop_limit h < 256 /\
  (len (BitFields.Model.v6_source h) = 16 /\ bytes_ok (BitFields.Model.v6_source h)) /\
  (len (BitFields.Model.v6_destination h) = 16 /\ bytes_ok (BitFields.Model.v6_destination h)).
Proof.
  unfold ip6_wf. intros W. bsplit W. repeat split; try assumption; apply bytes_okb_spec; assumption.
Qed.

Lemma len_ip6_bytes h : ip6_wf h = true -> len (BitFields.Model.Ipv6Header_to_bytes h) = 40.
Proof.
  intros WH. destruct (ip6_wf_inv h WH) as (_ & _ & _ & (LS & _) & (LD & _)).
  unfold BitFields.Model.Ipv6Header_to_bytes. rewrite !len_app, LS, LD. reflexivity.
Qed.

Definition v4_value (x : XM.Exts4) (t : transport_cfg) (plen : N) : N :=
  XM.header_len4 x + tr_header_len t + plen.
Definition v4_max (h : Ipv4Header) : N := 65535 - 20 - i4o_len (i4_options h).
Definition v6_size (x : XM.Exts6) (t : transport_cfg) (plen : N) : N :=
  XM.header_len x + tr_header_len t + plen.

Lemma i4o_len_le h : wf_ip4 h = true -> i4o_len (i4_options h) <= 40.
Proof.
  intros W. destruct (wf_ip4_facts h W) as (_ & _ & _ & WO).
  destruct (wf_i4o_facts _ WO) as (OL & _). exact OL.
Qed.

Lemma v4_fits h x t n : wf_ip4 h = true -> v4_value x t n <= v4_max h ->
  tr_header_len t + n <= 65515 /\ ip4_header_len h + v4_value x t n < 65536.
Proof. intros W F. pose proof (i4o_len_le h W). unfold v4_value, v4_max, ip4_header_len in *. lia. Qed.

Lemma ipv4_part_too_big e h x t p : wf_ip4 h = true -> v4_max h < v4_value x t (len p) ->
  ipv4_part e h x t p = (VdErr (EPayloadLen (v4_value x t (len p)) (v4_max h) VtIpv4PayloadLength), [], []).
Proof.
  intros W F. pose proof (i4o_len_le h W) as OL. unfold ipv4_part, v4_value, v4_max in *.
  rewrite (ltb_false 65515 (i4o_len (i4_options h))) by lia.
  replace (65535 - i4o_len (i4_options h) - 20) with (65535 - 20 - i4o_len (i4_options h)) by lia.
  apply N.ltb_lt in F. rewrite F. reflexivity.
Qed.

(* the header that is serialised *)
Definition v4_final (e : endian) (h : Ipv4Header) (x : XM.Exts4) (t : transport_cfg) (plen : N)
  : Ipv4Header :=
  let h1 := ip4_set_len_proto h (as_u16 (ip4_header_len h + v4_value x t plen))
                              (snd (XM.set_next_headers4 x (tr_ip_number t))) in
  match ip4_calc_checksum e h1 with
  | Some ck => ip4_set_checksum h1 ck
  | None => h1
  end.

Lemma v4_final_wf e h x t plen : wf_ip4 h = true -> XM.exts4_valid x = true -> tr_wf t = true ->
  wf_ip4 (v4_final e h x t plen) = true /\
  exists ck, ip4_calc_checksum e (ip4_set_len_proto h (as_u16 (ip4_header_len h + v4_value x t plen))
                                    (snd (XM.set_next_headers4 x (tr_ip_number t)))) = Some ck /\ ck < 65536.
Proof.
  intros W V T. destruct (snh4_facts x _ V (tr_ip_number_lt t T)) as (_ & P & _).
  pose proof (wf_set_len_proto h _ _ W (as_u16_lt (ip4_header_len h + v4_value x t plen)) P) as W1.
  destruct (ip4_calc_checksum_some e _ W1) as (ck & E & L).
  unfold v4_final. cbv zeta. rewrite E. split; [apply wf_set_checksum; [exact W1|exact L]|].
  exists ck. split; [reflexivity|exact L].
Qed.

Lemma ipv4_part_fits e h x t p : wf_ip4 h = true -> XM.exts4_valid x = true -> tr_wf t = true ->
  v4_value x t (len p) <= v4_max h ->
  exists hb xb, ip4_to_bytes (v4_final e h x t (len p)) = Some hb /\ len hb = ip4_header_len h /\
    XM.write4 (fst (XM.set_next_headers4 x (tr_ip_number t))) (snd (XM.set_next_headers4 x (tr_ip_number t)))
      = (xb, XM.Ok tt) /\ len xb = XM.header_len4 x /\
    ipv4_part e h x t p =
      match tr_ipv4 e (i4_source h) (i4_destination h) t (as_u16 (8 + len p)) p with
      | TOk tb => (VdOk, hb ++ xb, tb)
      | TErr er => (VdErr er, hb ++ xb, [])
      | TPanic s => (VdPanic s, hb ++ xb, [])
      end.
Proof.
  intros W V T F. pose proof (i4o_len_le h W) as OL.
  destruct (v4_final_wf e h x t (len p) W V T) as (WF & ck & ECK & LCK).
  destruct (ip4_ser_agree (v4_final e h x t (len p)) [] WF) as (hb & EB & _ & LB).
  destruct (snh4_facts x _ V (tr_ip_number_lt t T)) as (V1 & P & HL).
  pose proof (XP.link_write_order4 x (tr_ip_number t) V) as WO.
  eexists hb, _.
  split; [exact EB|]. split.
  { rewrite LB. unfold v4_final. rewrite ECK. reflexivity. }
  split; [exact WO|]. split.
  { rewrite <- HL. eapply XP.write4_len; [exact V1|exact WO]. }
  unfold ipv4_part. unfold v4_value, v4_max in *.
  rewrite (ltb_false 65515 (i4o_len (i4_options h))) by lia.
  rewrite (ltb_false (65535 - i4o_len (i4_options h) - 20) (XM.header_len4 x + tr_header_len t + len p)) by lia.
  cbv zeta. rewrite ECK.
  unfold v4_final, v4_value in EB. rewrite ECK in EB. rewrite EB. rewrite WO. reflexivity.
Qed.

Lemma ipv6_part_too_big e h x t p : 65535 < v6_size x t (len p) ->
  ipv6_part e h x t p = (VdErr (EPayloadLen (v6_size x t (len p)) 65535 VtIpv6PayloadLength), [], []).
Proof.
  intros F. unfold ipv6_part, v6_size in *. apply N.ltb_lt in F. rewrite F. reflexivity.
Qed.

Definition v6_final (h : BitFields.Model.Ipv6Header) (x : XM.Exts6) (t : transport_cfg) (plen : N) :=
  ip6_set_len_next h (as_u16 (v6_size x t plen)) (snd (XM.set_next_headers x (tr_ip_number t))).

Lemma ipv6_part_fits e h x t p : XM.exts6_valid x = true -> tr_wf t = true ->
  v6_size x t (len p) <= 65535 ->
  let s := XM.set_next_headers x (tr_ip_number t) in
  let hb := BitFields.Model.Ipv6Header_to_bytes (v6_final h x t (len p)) in
  match XM.next_header (fst s) (snd s) with
  | XM.Ok _ =>
      exists xb, XM.write (fst s) (snd s) = (xb, XM.Ok tt) /\ len xb = XM.header_len x /\
        ipv6_part e h x t p =
          match tr_ipv6 e (BitFields.Model.v6_source h) (BitFields.Model.v6_destination h) t
                        (as_u16 (8 + len p)) p with
          | TOk tb => (VdOk, hb ++ xb, tb)
          | TErr er => (VdErr er, hb ++ xb, [])
          | TPanic s => (VdPanic s, hb ++ xb, [])
          end
  | XM.Err w => exists xb, ipv6_part e h x t p = (VdErr (EIpv6Exts w), hb ++ xb, [])
  | _ => False
  end.
Proof.
  intros V T F s hb.
  destruct (XP.set_next_headers_facts x _ V (tr_ip_number_lt t T)) as (V1 & P & HL).
  pose proof (XP.write_iff_walk (fst s) (snd s) V1) as WW.
  unfold ipv6_part. unfold v6_size in F.
  rewrite (ltb_false 65535 (XM.header_len x + tr_header_len t + len p)) by lia.
  cbv zeta. fold s. fold (v6_size x t (len p)). fold (v6_final h x t (len p)). fold hb.
  destruct (XM.write (fst s) (snd s)) as [xb r] eqn:EW. cbn [snd] in WW.
  destruct (XM.next_header (fst s) (snd s)) as [n|w| |]; try contradiction.
  - subst r. exists xb. split; [reflexivity|]. split.
    + rewrite <- HL. eapply XP.write_len; [exact V1|exact EW].
    + reflexivity.
  - subst r. exists xb. reflexivity.
Qed.

Lemma link_bytes_len c : link_wf (c_link c) = true -> len (link_bytes c) = link_len c.
Proof.
  unfold link_bytes, link_len. destruct (c_link c) as [|s d|pt vl a]; cbn [link_wf]; intros W.
  - reflexivity.
  - bsplit W. unfold eth_to_bytes. rewrite !len_app.
    repeat match goal with H : len _ = 6 |- _ => rewrite H; clear H end. reflexivity.
  - bsplit W. unfold sll_to_bytes. rewrite !len_app.
    repeat match goal with H : len _ = 8 |- _ => rewrite H; clear H end. reflexivity.
Qed.
Lemma vlan_bytes_len c : len (vlan_bytes c) = vlan_len c.
Proof. unfold vlan_bytes, vlan_len. destruct (c_vlan c); reflexivity. Qed.

Lemma arp_bytes_len a : arp_wf a = true -> len (arp_to_bytes a) = arp_packet_len a.
Proof.
  unfold arp_wf, arp_to_bytes, arp_packet_len. intros W. bsplit W.
  rewrite !len_app. cbn [len]. 
  repeat match goal with H : len _ = len _ |- _ => rewrite <- H; clear H end.
  change (len (u16_to_be (arp_hw_addr_type a))) with 2.
  change (len (u16_to_be (arp_proto_addr_type a))) with 2.
  change (len (u16_to_be (arp_operation a))) with 2.
  change (len [len (arp_sender_hw a); len (arp_sender_proto a)]) with 2. lia.
Qed.

Lemma cfg_wf_inv c : cfg_wf c = true ->
  link_wf (c_link c) = true /\ vlan_wf (c_vlan c) = true /\ net_wf (c_net c) = true /\
  tr_wf (c_transport c) = true /\ shape_ok c = true.
Proof. unfold cfg_wf. rewrite !andb_true_iff. tauto. Qed.

Lemma build_of_run e c p v bs : build_run e c p = (v, bs) ->
  build e c p = match v with VdOk => BOk bs | VdErr er => BErr er | VdPanic s => BPanic s end.
Proof. unfold build. intros E. rewrite E. reflexivity. Qed.

(* build, one net layer at a time *)
Lemma build_ipv4 e c p h x : c_net c = NtIpv4 h x ->
  build e c p = match ipv4_part e h x (c_transport c) p with
                | (VdOk, nb, tb) => BOk (link_bytes c ++ vlan_bytes c ++ nb ++ tb ++ p)
                | (VdErr er, _, _) => BErr er
                | (VdPanic s, _, _) => BPanic s
                end.
Proof.
  intros EN. unfold build, build_run. rewrite EN.
  destruct (ipv4_part e h x (c_transport c) p) as [[[|er|s] nb] tb]; [rewrite <- app_assoc|..]; reflexivity.
Qed.
Lemma build_ipv6 e c p h x : c_net c = NtIpv6 h x ->
  build e c p = match ipv6_part e h x (c_transport c) p with
                | (VdOk, nb, tb) => BOk (link_bytes c ++ vlan_bytes c ++ nb ++ tb ++ p)
                | (VdErr er, _, _) => BErr er
                | (VdPanic s, _, _) => BPanic s
                end.
Proof.
  intros EN. unfold build, build_run. rewrite EN.
  destruct (ipv6_part e h x (c_transport c) p) as [[[|er|s] nb] tb]; [rewrite <- app_assoc|..]; reflexivity.
Qed.
Lemma build_arp e c p a : c_net c = NtArp a ->
  build e c p = BOk (link_bytes c ++ vlan_bytes c ++ arp_to_bytes a ++ p).
Proof. intros EN. unfold build, build_run. rewrite EN, <- app_assoc. reflexivity. Qed.

(* What a built packet consists of behind the link and VLAN headers: the IP (or ARP)
   header nb, the extension headers xb and the transport header tb, with the lengths
   the offsets of Spec.v are made of, and where each comes from. *)
Definition build_parts (e : endian) (c : cfg) (p nb xb tb : bytes) : Prop :=
  len nb = ip_header_len c /\ ip_header_len c + len xb = net_len c /\ len tb = transport_len c /\
  match c_net c with
  | NtIpv4 h x =>
      ip4_to_bytes (v4_final e h x (c_transport c) (len p)) = Some nb /\
      XM.write4 (fst (XM.set_next_headers4 x (tr_ip_number (c_transport c))))
                (snd (XM.set_next_headers4 x (tr_ip_number (c_transport c)))) = (xb, XM.Ok tt) /\
      v4_value x (c_transport c) (len p) <= v4_max h /\
      tr_ipv4 e (i4_source h) (i4_destination h) (c_transport c) (as_u16 (8 + len p)) p = TOk tb
  | NtIpv6 h x =>
      nb = BitFields.Model.Ipv6Header_to_bytes (v6_final h x (c_transport c) (len p)) /\
      XM.write (fst (XM.set_next_headers x (tr_ip_number (c_transport c))))
               (snd (XM.set_next_headers x (tr_ip_number (c_transport c)))) = (xb, XM.Ok tt) /\
      v6_size x (c_transport c) (len p) <= 65535 /\
      tr_ipv6 e (BitFields.Model.v6_source h) (BitFields.Model.v6_destination h) (c_transport c)
              (as_u16 (8 + len p)) p = TOk tb
  | NtArp a => nb = arp_to_bytes a /\ xb = [] /\ tb = []
  end.

Lemma build_cases e c p : cfg_wf c = true ->
  match spec_outcome c (len p) with
  | OOk => exists nb xb tb,
      build e c p = BOk (link_bytes c ++ vlan_bytes c ++ nb ++ xb ++ tb ++ p) /\ build_parts e c p nb xb tb
  | OErr er => build e c p = BErr er
  end.
Proof.
  intros W. destruct (cfg_wf_inv c W) as (WL & WV & WN & WT & WS).
  unfold spec_outcome, build_parts, ip_header_len, net_len, transport_len.
  destruct (c_net c) as [h x|h x|a] eqn:EN; cbn [net_wf] in WN.
  - apply andb_true_iff in WN. destruct WN as [WH WX].
    rewrite (build_ipv4 e c p h x EN). fold (v4_value x (c_transport c) (len p)). fold (v4_max h).
    destruct (v4_max h <? v4_value x (c_transport c) (len p)) eqn:EF.
    + apply N.ltb_lt in EF. rewrite (ipv4_part_too_big e h x _ p WH EF). reflexivity.
    + apply N.ltb_ge in EF.
      destruct (ipv4_part_fits e h x (c_transport c) p WH WX WT EF) as (hb & xb & EB & LH & EWR & LX & ->).
      destruct (is_icmpv6 (c_transport c)) eqn:EI.
      * destruct (c_transport c); try discriminate. reflexivity.
      * destruct (wf_ip4_facts h WH) as (_ & _ & (LS & _ & LD & _) & _).
        destruct (v4_fits h x (c_transport c) (len p) WH EF) as [B _].
        destruct (tr_ipv4_ok e _ _ (c_transport c) (as_u16 (8 + len p)) p LS LD WT EI B) as (tb & ET & LT).
        rewrite ET.
        replace (match c_transport c with TrIcmpv6 _ => OErr EIcmpv6InIpv4 | _ => OOk end) with OOk
          by (destruct (c_transport c); try reflexivity; discriminate).
        exists hb, xb, tb. rewrite <- (app_assoc hb). split; [reflexivity|].
        split; [exact LH|]. split; [rewrite LX; reflexivity|]. split; [exact LT|].
        split; [exact EB|]. split; [exact EWR|]. split; [exact EF|reflexivity].
  - apply andb_true_iff in WN. destruct WN as [WH WX].
    rewrite (build_ipv6 e c p h x EN). fold (v6_size x (c_transport c) (len p)).
    destruct (65535 <? v6_size x (c_transport c) (len p)) eqn:EF.
    + apply N.ltb_lt in EF. rewrite (ipv6_part_too_big e h x _ p EF). reflexivity.
    + apply N.ltb_ge in EF.
      pose proof (ipv6_part_fits e h x (c_transport c) p WX WT EF) as PF. cbv zeta in PF.
      destruct (XM.next_header _ _) as [n|w| |]; try contradiction.
      * destruct PF as (xb & EWR & LX & ->).
        destruct (ip6_wf_inv h WH) as (_ & _ & _ & (LS & _) & (LD & _)).
        assert (B : tr_header_len (c_transport c) + len p <= 65535) by (unfold v6_size in EF; lia).
        destruct (tr_ipv6_ok e _ _ (c_transport c) (as_u16 (8 + len p)) p LS LD WT B) as (tb & ET & LT).
        rewrite ET. eexists _, xb, tb. rewrite <- (app_assoc _ xb). split; [reflexivity|].
        split; [exact (len_ip6_bytes _ WH)|]. split; [rewrite LX; reflexivity|]. split; [exact LT|].
        split; [reflexivity|]. split; [exact EWR|]. split; [exact EF|reflexivity].
      * destruct PF as (xb & ->). reflexivity.
  - rewrite (build_arp e c p a EN). exists (arp_to_bytes a), [], [].
    split; [reflexivity|]. split; [exact (arp_bytes_len a WN)|]. split; [apply N.add_0_r|].
    split; [reflexivity|]. split; [reflexivity|]. split; reflexivity.
Qed.

Theorem build_outcome e c p : cfg_wf c = true ->
  match spec_outcome c (len p) with
  | OOk => exists bs, build e c p = BOk bs /\ len bs = final_size c (len p)
  | OErr er => build e c p = BErr er
  end.
Proof.
  intros W. destruct (cfg_wf_inv c W) as (WL & _).
  pose proof (build_cases e c p W) as O. destruct (spec_outcome c (len p)); [|exact O].
  destruct O as (nb & xb & tb & E & LN & LX & LT & _). eexists. split; [exact E|].
  rewrite !len_app, (link_bytes_len c WL), (vlan_bytes_len c), LN, LT. unfold final_size. lia.
Qed.

Lemma build_inv e c p bs : cfg_wf c = true -> build e c p = BOk bs ->
  exists nb xb tb, bs = link_bytes c ++ vlan_bytes c ++ nb ++ xb ++ tb ++ p /\ build_parts e c p nb xb tb.
Proof.
  intros W E. pose proof (build_cases e c p W) as O. destruct (spec_outcome c (len p)).
  - destruct O as (nb & xb & tb & E' & P). rewrite E in E'. injection E' as ->.
    exists nb, xb, tb. split; [reflexivity|exact P].
  - rewrite E in O. discriminate.
Qed.

(* the rest of a built packet from each offset of Spec.v *)
Lemma built_offsets e c p nb xb tb bs : link_wf (c_link c) = true -> build_parts e c p nb xb tb ->
  bs = link_bytes c ++ vlan_bytes c ++ nb ++ xb ++ tb ++ p ->
  drop (off_vlan c) bs = vlan_bytes c ++ nb ++ xb ++ tb ++ p /\
  drop (off_net c) bs = nb ++ xb ++ tb ++ p /\
  drop (off_exts c) bs = xb ++ tb ++ p /\
  drop (off_transport c) bs = tb ++ p /\
  drop (off_payload c) bs = p.
Proof.
  intros WL (LN & LX & LT & _) ->.
  unfold off_payload, off_transport, off_exts, off_net, off_vlan. rewrite <- LX.
  assert (D : forall (a r : bytes) k n, k = len a -> drop (k + n) (a ++ r) = drop n r).
  { intros a r k n ->. rewrite <- drop_drop, drop_app_len; reflexivity. }
  repeat split.
  - apply drop_app_len. symmetry. apply link_bytes_len. exact WL.
  - rewrite D by (symmetry; apply link_bytes_len; exact WL). apply drop_app_len. symmetry. apply vlan_bytes_len.
  - rewrite <- N.add_assoc, D by (symmetry; apply link_bytes_len; exact WL).
    rewrite D by (symmetry; apply vlan_bytes_len). apply drop_app_len. symmetry. exact LN.
  - rewrite <- !N.add_assoc, D by (symmetry; apply link_bytes_len; exact WL).
    rewrite D by (symmetry; apply vlan_bytes_len). rewrite D by (symmetry; exact LN). apply drop_app_len. reflexivity.
  - rewrite <- !N.add_assoc, D by (symmetry; apply link_bytes_len; exact WL).
    rewrite D by (symmetry; apply vlan_bytes_len). rewrite D by (symmetry; exact LN).
    rewrite D by reflexivity. apply drop_app_len. symmetry. exact LT.
Qed.

(* behind an IP header, header and payload fit the 16-bit length fields *)
Lemma build_parts_fits e c p nb xb tb : cfg_wf c = true -> build_parts e c p nb xb tb ->
  (forall a, c_net c <> NtArp a) -> tr_header_len (c_transport c) + len p <= 65535.
Proof.
  intros W (_ & _ & _ & P) NA. destruct (cfg_wf_inv c W) as (_ & _ & WN & _).
  destruct (c_net c) as [h x|h x|a]; cbn [net_wf] in WN.
  - apply andb_true_iff in WN. destruct P as (_ & _ & EF & _). destruct (v4_fits h x _ _ (proj1 WN) EF). lia.
  - destruct P as (_ & _ & EF & _). unfold v6_size in EF. lia.
  - destruct (NA a eq_refl).
Qed.

Theorem build_size e c p bs : cfg_wf c = true -> build e c p = BOk bs -> len bs = final_size c (len p).
Proof.
  intros W E. pose proof (build_outcome e c p W) as O.
  destruct (spec_outcome c (len p)).
  - destruct O as (bs' & E' & L). rewrite E in E'. inversion E'. subst bs'. exact L.
  - rewrite E in O. discriminate.
Qed.

Theorem build_never_panics e c p s : cfg_wf c = true -> build e c p <> BPanic s.
Proof.
  intros W E. pose proof (build_outcome e c p W) as O.
  destruct (spec_outcome c (len p)).
  - destruct O as (bs' & E' & L). rewrite E in E'. discriminate.
  - rewrite E in O. discriminate.
Qed.

Theorem build_error_iff e c p er : cfg_wf c = true ->
  (build e c p = BErr er <-> spec_outcome c (len p) = OErr er).
Proof.
  intros W. pose proof (build_outcome e c p W) as O.
  destruct (spec_outcome c (len p)) as [|er'].
  - destruct O as (bs' & E' & L). rewrite E'. split; discriminate.
  - rewrite O. split; intros H; inversion H; reflexivity.
Qed.

(* the three kinds of unencodable configurations, and nothing else *)
Definition ip_payload_len (c : cfg) (plen : N) : N :=
  match c_net c with
  | NtIpv4 _ x => v4_value x (c_transport c) plen
  | NtIpv6 _ x => v6_size x (c_transport c) plen
  | NtArp _ => 0
  end.
Definition ip_payload_max (c : cfg) : N :=
  match c_net c with
  | NtIpv4 h _ => v4_max h
  | _ => 65535
  end.

Theorem errors_classified c plen er : cfg_wf c = true -> spec_outcome c plen = OErr er ->
  (exists vt, er = EPayloadLen (ip_payload_len c plen) (ip_payload_max c) vt /\
              ip_payload_max c < ip_payload_len c plen) \/
  (er = EIcmpv6InIpv4 /\ is_icmpv6 (c_transport c) = true /\ exists h x, c_net c = NtIpv4 h x) \/
  (exists w k, er = EIpv6Exts w /\ c_transport c = TrNone k /\ ExtChain.Spec.is_ext_number k = true).
Proof.
  intros W. unfold spec_outcome, ip_payload_len, ip_payload_max.
  destruct (c_net c) as [h x|h x|a] eqn:EN; try discriminate.
  - fold (v4_value x (c_transport c) plen). fold (v4_max h).
    destruct (v4_max h <? v4_value x (c_transport c) plen) eqn:EF.
    + intros H. inversion H. left. eexists. split; [reflexivity|]. apply N.ltb_lt. exact EF.
    + destruct (c_transport c) eqn:ET; try discriminate.
      intros H. inversion H. right. left. split; [reflexivity|]. split; [reflexivity|]. eauto.
  - fold (v6_size x (c_transport c) plen).
    destruct (65535 <? v6_size x (c_transport c) plen) eqn:EF.
    + intros H. inversion H. left. eexists. split; [reflexivity|]. apply N.ltb_lt. exact EF.
    + destruct (ExtChain.Spec.is_ext_number (tr_ip_number (c_transport c))) eqn:EX.
      * destruct (c_transport c) as [k| | | |] eqn:ET; try (vm_compute in EX; discriminate).
        destruct (XM.next_header _ _) as [n|w| |]; try discriminate.
        intros H. inversion H. right. right. exists w, k. split; [reflexivity|]. split; [reflexivity|exact EX].
      * rewrite (XP.link_walks x _ EX). discriminate.
Qed.

(* with a transport header the chain is always linked: no walk error *)
Theorem no_walk_error_with_transport c plen w : cfg_wf c = true ->
  (forall k, c_transport c <> TrNone k) -> spec_outcome c plen <> OErr (EIpv6Exts w) /\
  spec_outcome c plen <> OErr (EIpv4Exts w).
Proof.
  intros W NR. split; intros H.
  - destruct (errors_classified c plen _ W H) as [(vt & E & _)|[(E & _)|(w' & k & E & ET & _)]];
      try discriminate. exact (NR k ET).
  - destruct (errors_classified c plen _ W H) as [(vt & E & _)|[(E & _)|(w' & k & E & ET & _)]];
      discriminate.
Qed.
