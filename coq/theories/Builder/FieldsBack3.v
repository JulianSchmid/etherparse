(* Builder/FieldsBack3.v -- property C10, field values: ARP, the IPv4 authentication
   header, the list `cfg_fields` of configured field values and the composition
     C10_crate_parse_back  o  C03_fields_from_*  o  evaluation of the field specification. *)
From Coq Require Import ZArith Lia ZifyN ZifyBool List.
From EP Require Import Base.Bytes Checksum.Spec Checksum.Model Checksum.Proofs.
From EP Require Import Checksum.ProtoTypes Checksum.ProtoSpec.
From EP Require Import Roundtrip.Common Roundtrip.CommonProofs.
From EP Require Roundtrip.Spec Roundtrip.SpecLinkNet Roundtrip.Tcp Roundtrip.TcpProofs Roundtrip.Ipv4 Roundtrip.Ipv4Proofs.
From EP Require CtlMsg.Spec CtlMsg.Model Roundtrip.Icmp4 Roundtrip.Icmp6.
From EP Require ExtChain.Spec ExtChain.Model ExtChain.View ExtChain.Proofs BitFields.Model.
From EP Require Import Parse.Types Parse.Slices Parse.Cursor Parse.View Parse.WireSpec.
From EP Require Parse.StrictProofs Parse.FieldsProofs Parse.Fields2 Parse.Fields2Proofs.
From EP Require Import Builder.Model Builder.Spec Builder.Proofs Builder.ProofsCk Builder.SpecX Builder.ProofsTr
  Builder.ProofsNx Builder.ProofsPb Builder.ProofsVal Builder.ProofsEx Builder.ProofsCrate.
From EP Require Import Parse.Fields.
From EP Require Import Builder.FieldsBack Builder.FieldsBack2.
Import ListNotations.
Local Open Scope N_scope.

Module XM := EP.ExtChain.Model.
Module XS := EP.ExtChain.Spec.
Module XV := EP.ExtChain.View.

Definition arp_cfg (a : ArpPacket) : fl :=
  [(Fhw_type, FvN (arp_hw_addr_type a)); (Fproto_type, FvN (arp_proto_addr_type a));
   (Fhw_size, FvN (len (arp_sender_hw a))); (Fproto_size, FvN (len (arp_sender_proto a)));
   (Foperation, FvN (arp_operation a));
   (Fsender_hw, FvBytes (arp_sender_hw a)); (Fsender_proto, FvBytes (arp_sender_proto a));
   (Ftarget_hw, FvBytes (arp_target_hw a)); (Ftarget_proto, FvBytes (arp_target_proto a))].

Lemma bytes_n_pre_i (pre tl : bytes) p i n : p = len pre -> bytes_n (pre ++ tl) (p + i) n = bytes_n tl i n.
Proof.
  intros ->. unfold bytes_n. rewrite <- bytes_at_drop. rewrite drop_app_len by reflexivity. reflexivity.
Qed.

Lemma arp_raw b0 b1 b2 b3 h q b6 b7 tl :
  arp_spec (b0 :: b1 :: b2 :: b3 :: h :: q :: b6 :: b7 :: tl) 0 =
  [(Fhw_type, FvN (be16 b0 b1)); (Fproto_type, FvN (be16 b2 b3)); (Fhw_size, FvN h); (Fproto_size, FvN q);
   (Foperation, FvN (be16 b6 b7)); (Fsender_hw, FvBytes (bytes_n tl 0 h)); (Fsender_proto, FvBytes (bytes_n tl (0 + h) q));
   (Ftarget_hw, FvBytes (bytes_n tl (0 + h + q) h)); (Ftarget_proto, FvBytes (bytes_n tl (0 + h + q + h) q))].
Proof.
  rewrite <- (bytes_n_pre_i [b0; b1; b2; b3; h; q; b6; b7] tl 8 0 h eq_refl).
  rewrite <- (bytes_n_pre_i [b0; b1; b2; b3; h; q; b6; b7] tl 8 (0 + h) q eq_refl).
  rewrite <- (bytes_n_pre_i [b0; b1; b2; b3; h; q; b6; b7] tl 8 (0 + h + q) h eq_refl).
  rewrite <- (bytes_n_pre_i [b0; b1; b2; b3; h; q; b6; b7] tl 8 (0 + h + q + h) q eq_refl).
  unfold arp_spec. cbv zeta. rewrite !N.add_assoc. reflexivity.
Qed.

Lemma arp_eval a rest : arp_wf a = true -> arp_spec (arp_to_bytes a ++ rest) 0 = arp_cfg a.
Proof.
  intros W. unfold arp_wf in W. bsplit W.
  unfold arp_to_bytes, u16_to_be. rewrite <- !app_assoc. cbn [app]. rewrite arp_raw.
  repeat match goal with X : _ < 65536 |- _ => rewrite (be16_u16 _ X); clear X end.
  set (sha := arp_sender_hw a) in *. set (spa := arp_sender_proto a) in *.
  set (tha := arp_target_hw a) in *. set (tpa := arp_target_proto a) in *.
  rewrite !N.add_0_l.
  rewrite (bytes_n_front sha) by reflexivity.
  rewrite (bytes_n_mid sha spa) by reflexivity.
  replace (sha ++ spa ++ tha ++ tpa ++ rest) with ((sha ++ spa) ++ tha ++ tpa ++ rest) by (now rewrite <- app_assoc).
  rewrite (bytes_n_mid (sha ++ spa) tha) by (rewrite ?len_app; lia).
  replace ((sha ++ spa) ++ tha ++ tpa ++ rest) with ((sha ++ spa ++ tha) ++ tpa ++ rest) by (now rewrite <- !app_assoc).
  rewrite (bytes_n_mid (sha ++ spa ++ tha) tpa) by (rewrite ?len_app; lia).
  reflexivity.
Qed.

Definition ah_cfg (a : XM.AuthH) : fl :=
  [(Fnext_header, FvN (XM.a_next_header a)); (Fpayload_len, FvN (XM.a_raw_icv_len a + 1));
   (Fspi, FvN (XM.a_spi a)); (Fseq, FvN (XM.a_sequence_number a)); (Ficv, FvBytes (XM.a_raw_icv a))].

Lemma ah_raw b0 b1 b2 b3 b4 b5 b6 b7 b8 b9 b10 b11 tl l :
  ah_spec (b0 :: b1 :: b2 :: b3 :: b4 :: b5 :: b6 :: b7 :: b8 :: b9 :: b10 :: b11 :: tl) 0 l =
  [(Fnext_header, FvN b0); (Fpayload_len, FvN b1); (Fspi, FvN (be_num [b4; b5; b6; b7]));
   (Fseq, FvN (be_num [b8; b9; b10; b11])); (Ficv, FvBytes (bytes_n tl 0 (l - 12)))].
Proof.
  rewrite <- (bytes_n_pre [b0; b1; b2; b3; b4; b5; b6; b7; b8; b9; b10; b11] tl 12 (l - 12) eq_refl).
  reflexivity.
Qed.

Lemma be_num_wire_u32 v : v < 4294967296 -> be_num (XS.wire_u32 v) = v.
Proof.
  intros H. unfold XS.wire_u32. rewrite <- (N.mod_small (v / 16777216) 256).
  - apply (be_num_u32 v H).
  - apply N.div_lt_upper_bound; lia.
Qed.

Lemma ah_eval a rest : XM.auth_valid a = true ->
  ah_spec (XV.auth_wire_bytes a ++ rest) 0 (XM.auth_header_len a) = ah_cfg a.
Proof.
  intros V. unfold XM.auth_valid in V. bsplit V.
  pose proof (be_num_wire_u32 (XM.a_spi a) ltac:(assumption)) as S1.
  pose proof (be_num_wire_u32 (XM.a_sequence_number a) ltac:(assumption)) as S2.
  unfold XV.auth_wire_bytes, XS.wire_auth_header, XS.wire_u32 in *. rewrite <- !app_assoc. cbn [app].
  rewrite ah_raw, S1, S2. unfold XM.auth_header_len.
  match goal with L : len (XM.a_raw_icv a) = _ |- _ => rename L into LI end.
  replace (12 + XM.a_raw_icv_len a * 4 - 12) with (len (XM.a_raw_icv a)) by lia.
  rewrite bytes_n_front by reflexivity. rewrite LI.
  replace ((12 + XM.a_raw_icv_len a * 4) / 4 - 2) with (XM.a_raw_icv_len a + 1).
  - reflexivity.
  - replace (12 + XM.a_raw_icv_len a * 4) with ((XM.a_raw_icv_len a + 3) * 4) by lia.
    rewrite N.div_mul by discriminate. lia.
Qed.

Definition cfg_link_fields (c : cfg) : layers :=
  match c_link c with
  | LkNone => []
  | LkEthernet2 s d => [(LEth, eth_cfg s d (link_announces c))]
  | LkLinuxSll pt vl a => [(LSll, sll_cfg pt vl a (net_ether_type (c_net c)))]
  end.
Definition cfg_vlan_fields (c : cfg) : layers :=
  match c_vlan c with
  | VlNone => []
  | VlSingle v => [(LVlan, vlan_cfgf v (net_ether_type (c_net c)))]
  | VlDouble o i => [(LVlan, vlan_cfgf o 33024); (LVlan, vlan_cfgf i (net_ether_type (c_net c)))]
  end.
(* xf = the layers of the IPv6 extension headers *)
Definition cfg_net_fields (e : endian) (c : cfg) (plen : N) (xf : layers) : layers :=
  match c_net c with
  | NtIpv4 h x =>
      (LIpv4, ipv4_cfg (v4_final e h x (c_transport c) plen)) ::
      match XM.auth4 x with
      | Some a => [(LAuth, ah_cfg (XM.auth_set_next_header a (tr_ip_number (c_transport c))))]
      | None => []
      end
  | NtIpv6 h x => (LIpv6, ipv6_cfg (v6_final h x (c_transport c) plen)) :: xf
  | NtArp a => [(LArp, arp_cfg a)]
  end.
(* ck = the transport checksum (characterised by C10_checksums_verify) *)
Definition cfg_tr_fields (c : cfg) (plen ck : N) : layers :=
  match c_net c with
  | NtArp _ => []
  | _ =>
    if is_fragmented_x c then []
    else match c_transport c with
         | TrNone _ => []
         | TrUdp sp dp => [(LUdp, udp_cfg sp dp (8 + plen) ck)]
         | TrTcp t => [(LTcp, tcp_cfg t ck)]
         | TrIcmpv4 t => [(LIcmp4, icmp_cfg (icmp4_wire (c09_icmp4 t) 0) ck)]
         | TrIcmpv6 t => [(LIcmp6, icmp_cfg (icmp6_wire (c09_icmp6 t) 0) ck)]
         end
  end.
Definition cfg_fields (e : endian) (c : cfg) (plen ck : N) (xf : layers) : layers :=
  cfg_link_fields c ++ cfg_vlan_fields c ++ cfg_net_fields e c plen xf ++ cfg_tr_fields c plen ck.

(* the C03 field specification of the IPv6 extension area of a built packet: the chain walk from the
   number the IPv6 header announces, over [off_exts, off_exts + header_len) *)
Definition ext6_fields (bs : bytes) (c : cfg) : layers :=
  match c_net c with
  | NtIpv6 h x =>
      chain_spec bs (S (N.to_nat (XM.header_len x))) (snd (XM.set_next_headers x (tr_ip_number (c_transport c))))
                 (off_exts c) (off_exts c + XM.header_len x)
  | _ => []
  end.

Lemma at_enc (bs : bytes) off n : drop off bs = take n (drop off bs) ++ drop n (drop off bs).
Proof. symmetry. apply take_drop. Qed.

Lemma link_part e c p bs : cfg_wf c = true -> build e c p = BOk bs ->
  sopt (spec_link bs) (exp_link c (final_size c (len p))) = cfg_link_fields c.
Proof.
  intros W E. destruct (cfg_wf_inv c W) as (WL & WV & WN & WT & WS).
  destruct (layers_as_configured e c p bs W E) as (TL & _). cbv zeta in TL.
  pose proof (net_et_lt (c_net c)) as NE.
  unfold exp_link, cfg_link_fields, link_bytes, link_len in *.
  destruct (c_link c) as [|s d|pt vl a]; [reflexivity| |]; cbn [sopt spec_link fst]; cbn [link_wf] in WL; bsplit WL.
  - rewrite eth_shift, (at_enc bs 0 14), !drop_0, TL.
    rewrite eth_eval; [reflexivity|assumption|assumption|].
    unfold link_announces. destruct (c_vlan c); lia.
  - rewrite sll_shift, (at_enc bs 0 16), !drop_0, TL.
    rewrite sll_eval; [reflexivity|lia|assumption|assumption|exact NE].
Qed.

Lemma vlan_part e c p bs : cfg_wf c = true -> build e c p = BOk bs ->
  map (spec_ext bs) (exp_exts c (final_size c (len p))) = cfg_vlan_fields c.
Proof.
  intros W E. destruct (cfg_wf_inv c W) as (WL & WV & WN & WT & WS).
  destruct (layers_as_configured e c p bs W E) as (_ & TV & _). cbv zeta in TV.
  pose proof (net_et_lt (c_net c)) as NE.
  unfold exp_exts, cfg_vlan_fields, vlan_bytes, vlan_len in *.
  destruct (c_vlan c) as [|v|o i]; [reflexivity| |]; cbn [map spec_ext fst]; cbn [vlan_wf] in WV.
  - rewrite vlan_shift, (at_enc bs (off_vlan c) 4), TV.
    rewrite vlan_eval; [reflexivity|exact WV|exact NE].
  - apply andb_true_iff in WV. destruct WV as [WO WI].
    rewrite (vlan_shift bs (off_vlan c)), (vlan_shift bs (off_vlan c + 4)).
    assert (D4 : drop (off_vlan c + 4) bs = drop 4 (drop (off_vlan c) bs)) by (now rewrite drop_drop).
    rewrite D4. rewrite (at_enc bs (off_vlan c) (4 * 2)), TV. rewrite <- app_assoc.
    rewrite vlan_eval by (try exact WO; lia).
    rewrite drop_app_len by reflexivity.
    rewrite vlan_eval by (try exact WI; exact NE). reflexivity.
Qed.

Lemma net_part e c p bs : cfg_wf c = true -> build e c p = BOk bs ->
  sopt (spec_net bs) (exp_net_x c (final_size c (len p))) = cfg_net_fields e c (len p) (ext6_fields bs c).
Proof.
  intros W E. destruct (cfg_wf_inv c W) as (WL & WV & WN & WT & WS).
  pose proof (tr_ip_number_lt _ WT) as NL.
  pose proof (layers_as_configured e c p bs W E) as LC. cbv zeta in LC. destruct LC as (_ & _ & LN & _).
  unfold exp_net_x, cfg_net_fields, ext6_fields.
  destruct (c_net c) as [h x|h x|a] eqn:EN; cbn [sopt spec_net fst snd]; cbn [net_wf] in WN.
  - apply andb_true_iff in WN. destruct WN as [WH WX].
    destruct (ipv4_consistent e c p bs h x W E EN) as (WF & EB & _ & _ & _ & _ & _ & _ & _ & _ & _ & _ & _ & OP & _).
    cbv zeta in WF, EB, OP.
    set (hf := v4_final e h x (c_transport c) (len p)) in *.
    assert (HL : Ipv4.ip4_header_len h = Ipv4.ip4_header_len hf) by (unfold Ipv4.ip4_header_len; now rewrite OP).
    f_equal.
    + f_equal. rewrite ipv4_shift, (at_enc bs (off_net c) (Ipv4.ip4_header_len h)). rewrite HL in *.
      apply (ipv4_eval hf _ _ WF EB).
    + destruct LN as (LX & _). unfold XM.exts4_valid in WX. unfold XM.header_len4, XM.set_next_headers4 in LX.
      destruct (XM.auth4 x) as [a|] eqn:EA; [|reflexivity]. cbn [XM.opt_valid] in WX. cbn [fst] in LX.
      pose proof (XP.auth_set_valid a _ WX NL) as VA.
      set (a' := XM.auth_set_next_header a (tr_ip_number (c_transport c))) in *.
      change (XV.rfc_order_bytes4 (XM.mkExts4 (Some a'))) with (XV.auth_wire_bytes a' ++ []) in LX.
      rewrite app_nil_r in LX.
      cbn [fst snd]. rewrite ah_shift, (at_enc bs (off_exts c) (XM.auth_header_len a)), LX.
      change (XM.auth_header_len a) with (XM.auth_header_len a').
      rewrite (ah_eval a' _ VA). reflexivity.
  - apply andb_true_iff in WN. destruct WN as [WH WX].
    destruct (ipv6_consistent e c p bs h x W E EN) as (T40 & _ & PL & LT & NH & _). cbv zeta in T40, PL, NH.
    destruct (ip6_built_fields e c p bs h x W E EN) as (_ & _ & B6 & _).
    destruct (XP.set_next_headers_facts x _ WX NL) as (_ & SL & _).
    set (hf := v6_final h x (c_transport c) (len p)) in *.
    assert (WF : ip6_wf hf = true) by exact WH.
    f_equal.
    + f_equal. rewrite ipv6_shift, (at_enc bs (off_net c) 40), T40.
      apply ipv6_eval; [exact WF|rewrite PL; exact LT|rewrite NH; exact SL].
    + rewrite B6. reflexivity.
  - rewrite arp_shift, (at_enc bs (off_net c) (arp_packet_len a)), LN.
    rewrite (arp_eval a _ WN). reflexivity.
Qed.

Lemma tr_part e c p bs : cfg_wf c = true -> bytes_ok p -> build e c p = BOk bs ->
  exists ck, ck < 65536 /\
    (ck_pseudo c (len (drop (off_transport c) bs)) <> None -> is_fragmented_x c = false ->
     ck = W bs (off_transport c + ck_field_off (c_transport c))) /\
    sopt (spec_tr bs)
      (match c_net c with
       | NtArp _ => None
       | _ => if is_fragmented_x c then None else exp_transport c (final_size c (len p))
       end) = cfg_tr_fields c (len p) ck.
Proof.
  intros WFc OKP E. destruct (cfg_wf_inv c WFc) as (WL & WV & WN & WT & WS).
  pose proof (transport_is_rfc_layout e c p bs WFc E) as TL.
  pose proof (udp_consistent e c p bs) as UC.
  unfold cfg_tr_fields, exp_transport, ck_pseudo.
  assert (NA : (forall a, c_net c <> NtArp a) ->
    match th_of (c_transport c) (8 + len p) with
    | None => drop (off_transport c) bs = p
    | Some th => exists ck, ck < 65536 /\ drop (off_transport c) bs = th_wire th ck ++ p
    end).
  { intros H. destruct (c_net c); [exact TL|exact TL|exfalso; eapply H; reflexivity]. }
  assert (U8 : forall sp dp, c_transport c = TrUdp sp dp -> (forall a, c_net c <> NtArp a) -> 8 + len p < 65536).
  { intros sp dp ET H. specialize (UC sp dp WFc OKP E ET). destruct (c_net c); [exact (proj1 UC)|exact (proj1 UC)|].
    exfalso; eapply H; reflexivity. }
  assert (MAIN : (forall a, c_net c <> NtArp a) -> exists ck, ck < 65536 /\
     (match c_transport c with TrNone _ => False | _ => True end ->
      ck = W bs (off_transport c + ck_field_off (c_transport c))) /\
     sopt (spec_tr bs)
       (match c_transport c with
        | TrNone _ => None
        | TrUdp _ _ => Some (VUdp (off_transport c, final_size c (len p) - off_transport c))
        | TrTcp h => Some (VTcp (Tcp.header_len h) (off_transport c, final_size c (len p) - off_transport c))
        | TrIcmpv4 _ => Some (VIcmpv4 (off_transport c, final_size c (len p) - off_transport c))
        | TrIcmpv6 _ => Some (VIcmpv6 (off_transport c, final_size c (len p) - off_transport c))
        end) =
     match c_transport c with
     | TrNone _ => []
     | TrUdp sp dp => [(LUdp, udp_cfg sp dp (8 + len p) ck)]
     | TrTcp t => [(LTcp, tcp_cfg t ck)]
     | TrIcmpv4 t => [(LIcmp4, icmp_cfg (icmp4_wire (c09_icmp4 t) 0) ck)]
     | TrIcmpv6 t => [(LIcmp6, icmp_cfg (icmp6_wire (c09_icmp6 t) 0) ck)]
     end).
  { intros H. specialize (NA H).
    destruct (c_transport c) as [n|sp dp|t|k|k] eqn:ET; cbn [th_of icmp4_of icmp6_of option_map] in NA;
      cbn [sopt spec_tr fst tr_wf ck_field_off] in *.
    - exists 0. split; [lia|]. split; [intros []|reflexivity].
    - destruct NA as (ck & CK & D). exists ck. split; [exact CK|]. bsplit WT.
      pose proof (U8 sp dp eq_refl H) as L8. split.
      + intros _. rewrite <- W_drop, D. unfold th_wire, udp_wire, w16, to_be16. cbn [app u_sport u_dport u_length].
        unfold W. change (B _ 6) with ((ck / 256) mod 256). change (B _ (6 + 1)) with (ck mod 256).
        symmetry. apply (be16_u16 _ CK).
      + rewrite udp_shift, D. cbn [th_wire]. rewrite udp_eval by assumption. reflexivity.
    - destruct NA as (ck & CK & D). exists ck. split; [exact CK|]. split.
      + intros _. rewrite <- W_drop, D. cbn [th_wire]. unfold tcp_wire, w16, w32, to_be16, to_be32.
        rewrite <- !app_assoc. cbn [app]. unfold W. change (B _ 16) with ((ck / 256) mod 256).
        change (B _ (16 + 1)) with (ck mod 256). symmetry. apply (be16_u16 _ CK).
      + rewrite tcp_shift, D. cbn [th_wire]. rewrite (tcp_eval t ck p WT CK). reflexivity.
    - destruct NA as (ck & CK & D). exists ck. split; [exact CK|]. split.
      + intros _. rewrite <- W_drop, D. cbn [th_wire].
        pose proof (icmp4_eval (c09_icmp4 k) ck p CK) as EV.
        unfold icmp_spec, icmp_cfg in EV. injection EV as _ _ EV _.
        symmetry. exact EV.
      + rewrite icmp_shift, D. cbn [th_wire]. rewrite (icmp4_eval _ ck p CK). reflexivity.
    - destruct NA as (ck & CK & D). exists ck. split; [exact CK|]. split.
      + intros _. rewrite <- W_drop, D. cbn [th_wire].
        pose proof (icmp6_eval (c09_icmp6 k) ck p CK) as EV.
        unfold icmp_spec, icmp_cfg in EV. injection EV as _ _ EV _.
        symmetry. exact EV.
      + rewrite icmp_shift, D. cbn [th_wire]. rewrite (icmp6_eval _ ck p CK). reflexivity. }
  destruct (c_net c) as [h x|h x|a] eqn:EN.
  - destruct (MAIN ltac:(intros a; discriminate)) as (ck & CK & CW & M). exists ck. split; [exact CK|]. split.
    + intros PS FR. apply CW. destruct (c_transport c); try exact I. exfalso. apply PS. reflexivity.
    + destruct (is_fragmented_x c); [reflexivity|exact M].
  - destruct (MAIN ltac:(intros a; discriminate)) as (ck & CK & CW & M). exists ck. split; [exact CK|]. split.
    + intros PS FR. apply CW. destruct (c_transport c); try exact I. exfalso. apply PS. reflexivity.
    + destruct (is_fragmented_x c); [reflexivity|exact M].
  - exists 0. split; [lia|]. split; [|reflexivity]. intros PS. exfalso. apply PS. reflexivity.
Qed.

Theorem spec_fields_built e c p bs : cfg_wf c = true -> bytes_ok p -> build e c p = BOk bs ->
  exists ck, ck < 65536 /\
    (ck_pseudo c (len (drop (off_transport c) bs)) <> None -> is_fragmented_x c = false ->
     ck = WireSpec.W bs (off_transport c + ck_field_off (c_transport c))) /\
    spec_fields bs (expected_x c (len p)) = cfg_fields e c (len p) ck (ext6_fields bs c).
Proof.
  intros WFc OKP E. destruct (tr_part e c p bs WFc OKP E) as (ck & CK & CW & TP).
  exists ck. split; [exact CK|]. split; [exact CW|].
  unfold spec_fields, expected_x, cfg_fields. cbv zeta. cbn [v_link v_exts v_net v_transport].
  rewrite (link_part e c p bs WFc E), (vlan_part e c p bs WFc E), (net_part e c p bs WFc E), TP. reflexivity.
Qed.

(* no IPv6 extension headers configured *)
Definition v6_exts_len (c : cfg) : N :=
  match c_net c with NtIpv6 _ x => XM.header_len x | _ => 0 end.

Lemma ext6_fields_none bs c : v6_exts_len c = 0 -> ext6_fields bs c = [].
Proof.
  unfold v6_exts_len, ext6_fields. destruct (c_net c) as [h x|h x|a]; try reflexivity.
  intros ->. cbn [N.to_nat chain_spec]. rewrite N.add_0_r.
  destruct (off_exts c <=? off_exts c) eqn:C; [reflexivity|]. apply N.leb_gt in C. lia.
Qed.

(* the transport checksum value: the RFC 1071 value over pseudo header ++ segment with the field zeroed *)
Definition ck_is_rfc (c : cfg) (bs : bytes) (ck : N) : Prop :=
  let seg := drop (off_transport c) bs in
  forall ph, ck_pseudo c (len seg) = Some ph -> is_fragmented_x c = false ->
    ck = ck_value (c_transport c) (rfc1071 (ph ++ zero16_at (ck_field_off (c_transport c)) seg)).

Lemma ck_rfc e c p bs ck : cfg_wf c = true -> bytes_ok p -> build e c p = BOk bs ->
  (ck_pseudo c (len (drop (off_transport c) bs)) <> None -> is_fragmented_x c = false ->
   ck = WireSpec.W bs (off_transport c + ck_field_off (c_transport c))) ->
  ck_is_rfc c bs ck.
Proof.
  intros WFc OKP E CW. unfold ck_is_rfc. cbv zeta. intros ph PH FR.
  pose proof (checksums_verify e c p bs WFc OKP E) as CV. cbv zeta in CV. rewrite PH in CV.
  destruct CV as (_ & _ & _ & _ & CV). rewrite <- CV. apply CW; [rewrite PH; discriminate|exact FR].
Qed.

Theorem crate_fields_back_partial e c p bs :
  cfg_wf c = true -> bytes_ok p -> payload_admitted c (len p) = true -> build e c p = BOk bs ->
  exists sp ck, crate_entry c bs = Ok sp /\ view sp = expected_x c (len p) /\
    ck < 65536 /\ ck_is_rfc c bs ck /\
    fields_of_packet sp = Ok (cfg_fields e c (len p) ck (ext6_fields bs c)).
Proof.
  intros WFc OKP PA E. pose proof (build_bytes_ok e c p bs WFc OKP E) as OKB.
  destruct (crate_parse_back e c p bs WFc OKP PA E) as (sp & CE & V).
  destruct (spec_fields_built e c p bs WFc OKP E) as (ck & CK & CW & SF).
  exists sp, ck. split; [exact CE|]. split; [exact V|]. split; [exact CK|].
  split; [exact (ck_rfc e c p bs ck WFc OKP E CW)|].
  rewrite <- SF, <- V. unfold crate_entry in CE.
  destruct (c_link c).
  - exact (Parse.FieldsProofs.fields_from_ip bs sp OKB CE).
  - exact (Parse.FieldsProofs.fields_from_ethernet bs sp OKB CE).
  - exact (Parse.FieldsProofs.fields_from_linux_sll bs sp OKB CE).
Qed.

Theorem crate_fields_back e c p bs :
  cfg_wf c = true -> bytes_ok p -> payload_admitted c (len p) = true -> build e c p = BOk bs ->
  v6_exts_len c = 0 ->
  exists sp ck, crate_entry c bs = Ok sp /\ view sp = expected_x c (len p) /\
    ck < 65536 /\ ck_is_rfc c bs ck /\
    fields_of_packet sp = Ok (cfg_fields e c (len p) ck []).
Proof.
  intros WFc OKP PA E NX. destruct (crate_fields_back_partial e c p bs WFc OKP PA E) as (sp & ck & H).
  exists sp, ck. rewrite (ext6_fields_none bs c NX) in H. exact H.
Qed.

(* the fourth entry point: a packet built without link layer through SlicedPacket::from_ether_type *)
Theorem crate_fields_back_ether_type e c p bs :
  cfg_wf c = true -> bytes_ok p -> payload_admitted c (len p) = true -> build e c p = BOk bs ->
  c_link c = LkNone ->
  exists sp ck, SlicedPacket.from_ether_type (net_ether_type (c_net c)) bs = Ok sp /\
    ck < 65536 /\ ck_is_rfc c bs ck /\
    fields_of_packet sp = Ok (cfg_fields e c (len p) ck (ext6_fields bs c)).
Proof.
  intros WFc OKP PA E LK. pose proof (build_bytes_ok e c p bs WFc OKP E) as OKB.
  destruct (crate_parse_back_ether_type e c p bs WFc OKP PA E LK) as (sp & CE & V). cbv zeta in V.
  destruct (spec_fields_built e c p bs WFc OKP E) as (ck & CK & CW & SF).
  exists sp, ck. split; [exact CE|]. split; [exact CK|].
  split; [exact (ck_rfc e c p bs ck WFc OKP E CW)|].
  rewrite (Parse.FieldsProofs.fields_from_ether_type bs _ sp OKB CE), V, <- SF.
  unfold spec_fields, expected_x, exp_link. cbv zeta. cbn [v_link v_exts v_net v_transport]. rewrite LK. reflexivity.
Qed.
