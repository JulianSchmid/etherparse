(* Builder/ProofsNx.v -- property C10: every ether type / protocol / next-header
   field of a built packet names the layer that follows, as facts about the bytes at
   the computed offsets (`B bs i`, `W bs i` of Parse/WireSpec.v), plus the header
   fields the reference decoder reads (version/IHL, length fields, fragment bits,
   extension header lengths).  Uses C12 (write visits the headers in RFC 8200 order,
   linked) and the layouts of C08 / C15. *)
From EP Require Import Base.Bytes Checksum.Spec Checksum.Model Checksum.Proofs.
From EP Require Import Roundtrip.Common Roundtrip.CommonProofs.
From EP Require Roundtrip.Spec Roundtrip.Tcp Roundtrip.TcpProofs Roundtrip.Ipv4 Roundtrip.Ipv4Proofs.
From EP Require ExtChain.Spec ExtChain.Model ExtChain.View ExtChain.Proofs BitFields.Model.
From EP Require Import Parse.WireSpec.
From EP Require Import Builder.Model Builder.Spec Builder.Proofs Builder.ProofsCk Builder.SpecX Builder.ProofsTr.
From Coq Require Import ZArith Lia ZifyN ZifyBool.
Local Open Scope N_scope.

Module XS := EP.ExtChain.Spec.
Module XV := EP.ExtChain.View.

Lemma net_et_lt n : net_ether_type n < 65536.
Proof. destruct n; cbn; lia. Qed.

Lemma link_fields c rest : link_wf (c_link c) = true -> shape_ok c = true ->
  let bs := link_bytes c ++ rest in
  match c_link c with
  | LkNone => True
  | LkEthernet2 _ _ => W bs 12 = link_announces c
  | LkLinuxSll pt _ _ => W bs 0 = pt /\ W bs 2 = 1 /\ W bs 14 = net_ether_type (c_net c) /\ c_vlan c = VlNone
  end.
Proof.
  intros WL WS. cbv zeta. unfold link_bytes, link_announces.
  pose proof (net_et_lt (c_net c)) as NE.
  unfold shape_ok in WS. revert WL WS.
  destruct (c_link c) as [|s d|pt vl a]; intros WL WS; [exact I| |]; cbn [link_wf] in WL; bsplit WL.
  - unfold eth_to_bytes.
    replace ((d ++ s ++ u16_to_be
               match c_vlan c with VlNone => net_ether_type (c_net c) | VlSingle _ => 33024 | VlDouble _ _ => 34984 end)
             ++ rest)
      with ((d ++ s) ++ u16_to_be
               match c_vlan c with VlNone => net_ether_type (c_net c) | VlSingle _ => 33024 | VlDouble _ _ => 34984 end
             ++ rest) by (rewrite <- !app_assoc; reflexivity).
    apply W_u16; [rewrite len_app; lia|]. destruct (c_vlan c); lia.
  - destruct (c_vlan c); try discriminate.
    unfold sll_to_bytes.
    match goal with H : len a = 8 |- _ => rename H into LA end.
    split; [|split; [|split; [|reflexivity]]].
    + rewrite <- !app_assoc. apply (W_u16 [] _ pt 0); [reflexivity|lia].
    + replace ((u16_to_be pt ++ u16_to_be 1 ++ u16_to_be vl ++ a ++ u16_to_be (net_ether_type (c_net c))) ++ rest)
        with (u16_to_be pt ++ u16_to_be 1 ++ (u16_to_be vl ++ a ++ u16_to_be (net_ether_type (c_net c)) ++ rest))
        by (rewrite <- !app_assoc; reflexivity).
      apply W_u16; [reflexivity|lia].
    + replace ((u16_to_be pt ++ u16_to_be 1 ++ u16_to_be vl ++ a ++ u16_to_be (net_ether_type (c_net c))) ++ rest)
        with ((u16_to_be pt ++ u16_to_be 1 ++ u16_to_be vl ++ a) ++ u16_to_be (net_ether_type (c_net c)) ++ rest)
        by (rewrite <- !app_assoc; reflexivity).
      apply W_u16; [rewrite !len_app, LA; reflexivity|exact NE].
Qed.

Lemma vlan_to_bytes_et v et rest : et < 65536 ->
  W (BitFields.Model.SingleVlanHeader_to_bytes (vlan_set_ether_type v et) ++ rest) 2 = et.
Proof.
  intros L. unfold BitFields.Model.SingleVlanHeader_to_bytes, vlan_set_ether_type.
  cbn [BitFields.Model.vlan_ether_type BitFields.Model.vlan_id BitFields.Model.vlan_dei BitFields.Model.vlan_pcp].
  unfold BitFields.Model.be16_0, BitFields.Model.be16_1.
  set (b0 := N.lor _ _). set (b1 := BitFields.Model.vlan_id v mod 256).
  change ([b0; b1; (et / 256) mod 256; et mod 256] ++ rest) with ([b0; b1] ++ u16_to_be et ++ rest).
  apply W_u16; [reflexivity|exact L].
Qed.

Lemma vlan_fields c rest :
  let vs := vlan_bytes c ++ rest in
  match c_vlan c with
  | VlNone => True
  | VlSingle _ => W vs 2 = net_ether_type (c_net c)
  | VlDouble _ _ => W vs 2 = 33024 /\ W vs 6 = net_ether_type (c_net c)
  end.
Proof.
  cbv zeta. unfold vlan_bytes. pose proof (net_et_lt (c_net c)) as NE.
  destruct (c_vlan c) as [|v|o i]; [exact I| |].
  - apply vlan_to_bytes_et. exact NE.
  - split.
    + rewrite <- app_assoc. apply vlan_to_bytes_et. lia.
    + rewrite <- app_assoc.
      change 6 with (4 + 2). rewrite <- W_drop.
      rewrite drop_app_len by reflexivity. apply vlan_to_bytes_et. exact NE.
Qed.

Definition ip4_flags_word (h : Ipv4.Ipv4Header) : N :=
  (Roundtrip.Spec.bit (Ipv4.i4_dont_fragment h) * 2 + Roundtrip.Spec.bit (Ipv4.i4_more_fragments h)) * 8192
  + Ipv4.i4_fragment_offset h.

Lemma ip4_layout_fields h hb rest : Ipv4.wf_ip4 h = true -> Ipv4.ip4_to_bytes h = Some hb ->
  let d := hb ++ rest in
  B d 0 = 64 + (5 + Ipv4.i4o_len (Ipv4.i4_options h) / 4) /\ W d 2 = Ipv4.i4_total_len h /\
  W d 6 = ip4_flags_word h /\ B d 9 = Ipv4.i4_protocol h /\ B d 6 = (ip4_flags_word h / 256) mod 256.
Proof.
  intros WH EB. cbv zeta. rewrite (Ipv4Proofs.ip4_spec h WH) in EB. apply Some_inj in EB. subst hb.
  destruct (Ipv4Proofs.wf_ip4_facts h WH) as ((R1 & R2 & R3 & R4) & (R5 & R6 & R7 & R8) & (LS & OS & LD & OD) & WO).
  unfold Roundtrip.Spec.ipv4_layout, Roundtrip.Spec.field. rewrite (Ipv4Proofs.len_take_i4o _ WO).
  cbn [to_be app].
  set (fw := (Roundtrip.Spec.bit (Ipv4.i4_dont_fragment h) * 2 + Roundtrip.Spec.bit (Ipv4.i4_more_fragments h)) * 8192
             + Ipv4.i4_fragment_offset h).
  assert (FW : fw < 65536).
  { subst fw. destruct (Ipv4.i4_dont_fragment h), (Ipv4.i4_more_fragments h); cbn [Roundtrip.Spec.bit]; lia. }
  split; [reflexivity|]. split; [|split; [|split; reflexivity]].
  - unfold W. change (B _ 2) with ((Ipv4.i4_total_len h / 256) mod 256).
    change (B _ (2 + 1)) with (Ipv4.i4_total_len h mod 256). apply (u16_be_roundtrip _ R3).
  - unfold W. change (B _ 6) with ((fw / 256) mod 256). change (B _ (6 + 1)) with (fw mod 256).
    apply (u16_be_roundtrip _ FW).
Qed.

(* the fragment test of the reference decoder on these two bytes *)
Lemma ip4_frag_bits h : Ipv4.i4_fragment_offset h < 8192 ->
  let w := ip4_flags_word h in
  (negb (((w / 256) mod 256 / 32) mod 2 =? 0) || negb (w mod 8192 =? 0)) = ipv4_frag h.
Proof.
  intros R. cbv zeta. unfold ip4_flags_word, ipv4_frag.
  set (fo := Ipv4.i4_fragment_offset h) in *.
  assert (E1 : forall k, k < 4 -> (((k * 8192 + fo) / 256) mod 256 / 32) mod 2 = k mod 2) by (intros k K; dmlia).
  assert (E2 : forall k, k < 4 -> (k * 8192 + fo) mod 8192 = fo) by (intros k K; dmlia).
  destruct (Ipv4.i4_dont_fragment h), (Ipv4.i4_more_fragments h); cbn [Roundtrip.Spec.bit];
    rewrite E1, E2 by lia; reflexivity.
Qed.

Lemma ip6_first_byte_sweep :
  forallb (fun tc => N.lor (BitFields.Model.shl8 6 4) (N.shiftr tc 4) / 16 =? 6) (CPP.upto 256) = true.
Proof. vm_compute. reflexivity. Qed.

Lemma ip6_layout_fields h rest : ip6_wf h = true -> BitFields.Model.v6_payload_length h < 65536 ->
  let d := BitFields.Model.Ipv6Header_to_bytes h ++ rest in
  B d 0 / 16 = 6 /\ W d 4 = BitFields.Model.v6_payload_length h /\ B d 6 = BitFields.Model.v6_next_header h.
Proof.
  intros WH PL. cbv zeta. unfold ip6_wf in WH. bsplit WH.
  unfold BitFields.Model.Ipv6Header_to_bytes. cbn [app].
  split; [|split; [|reflexivity]].
  - change (B _ 0) with (N.lor (BitFields.Model.shl8 6 4) (N.shiftr (BitFields.Model.v6_traffic_class h) 4)).
    match goal with H : BitFields.Model.v6_traffic_class h < 256 |- _ =>
      pose proof (CPP.sweep1 256 _ ip6_first_byte_sweep _ H) as S end.
    cbv beta in S. apply N.eqb_eq in S. exact S.
  - unfold W. change (B _ 4) with (BitFields.Model.be16_0 (BitFields.Model.v6_payload_length h)).
    change (B _ (4 + 1)) with (BitFields.Model.be16_1 (BitFields.Model.v6_payload_length h)).
    apply (u16_be_roundtrip _ PL).
Qed.

(* generic: headers written in the order of a kind list, linked through their first bytes *)
Definition order {A} (ks : list XS.ext_kind) (get : XS.ext_kind -> option A) : list (XS.ext_kind * A) :=
  flat_map (fun k => match get k with Some a => [(k, a)] | None => [] end) ks.

Lemma in_rfc_order_is {A} (get : XS.ext_kind -> option A) : XS.in_rfc_order get = order XS.rfc8200_order get.
Proof. reflexivity. Qed.

Section Chain.
  Variables (get_w : XS.ext_kind -> option bytes) (get_nh : XS.ext_kind -> option N)
            (get_i : XS.ext_kind -> option (N * bool)).
  Hypothesis C : forall k,
    match get_w k with
    | Some w => exists nh hl fr tl, get_nh k = Some nh /\ get_i k = Some (hl, fr) /\ w = nh :: tl /\ len w = hl /\
                  forall pre post, ext_hdr_at (B (pre ++ w ++ post)) (len pre) k hl fr
    | None => get_nh k = None /\ get_i k = None
    end.

  Lemma chain_generic ks : forall pre post first last,
    XS.linked first (order ks get_nh) last ->
    chain_full (B (pre ++ concat (map snd (order ks get_w)) ++ post)) (len pre) first (order ks get_i) last.
  Proof.
    induction ks as [|k ks IH]; intros pre post first last L.
    - exact L.
    - unfold order in *. cbn [flat_map] in *. specialize (C k).
      destruct (get_w k) as [w|].
      + destruct C as (nh & hl & fr & tl & E1 & E2 & EW & LW & HA). rewrite E1 in L. rewrite E2.
        cbn [app XS.linked map snd concat chain_full] in *. destruct L as [L1 L2].
        split; [exact L1|]. rewrite <- app_assoc. split; [apply HA|].
        assert (BP : B (pre ++ w ++ concat (map snd (flat_map (fun k0 => match get_w k0 with Some a => [(k0, a)] | None => [] end) ks)) ++ post) (len pre) = nh).
        { rewrite B_app_r by lia. replace (len pre - len pre) with 0 by lia. rewrite EW. reflexivity. }
        rewrite BP. rewrite app_assoc. replace (len pre + hl) with (len (pre ++ w)) by (rewrite len_app, LW; reflexivity).
        apply IH. exact L2.
      + destruct C as (E1 & E2). rewrite E1 in L. rewrite E2. cbn [app]. apply IH. exact L.
  Qed.
End Chain.

(* forgetting the details *)
Lemma chain_full_at Bf l : forall pos first last, chain_full Bf pos first l last ->
  chain_at Bf pos first (map (fun e => (fst e, fst (snd e))) l) last.
Proof.
  induction l as [|[k [hl fr]] r IH]; intros pos first last H; [exact H|].
  cbn [map fst snd chain_at chain_full] in *. destruct H as (H1 & _ & H3). split; [exact H1|]. apply IH. exact H3.
Qed.

(* the wire formats of C12 carry what ext_hdr_at asks for *)
Lemma raw_hdr_at h k pre post : XM.raw_valid h = true ->
  match k with XS.KFragment | XS.KAuth => False | _ => True end ->
  ext_hdr_at (B (pre ++ XV.raw_wire_bytes h ++ post)) (len pre) k (XM.raw_header_len h) false.
Proof.
  intros V K. apply XP.raw_valid_inv in V. destruct V as (_ & HL & HP & _).
  assert (E : B (pre ++ XV.raw_wire_bytes h ++ post) (len pre + 1) = XM.r_header_length h).
  { rewrite B_app_r by lia. replace (len pre + 1 - len pre) with 1 by lia.
    unfold XV.raw_wire_bytes, XS.wire_options_header. cbn [app]. rewrite B_consS by lia. change (1 - 1) with 0.
    rewrite B_cons0. rewrite HP. clear - HL. dmlia. }
  unfold XM.raw_header_len. destruct k; try contradiction; cbn [ext_hdr_at]; rewrite E; repeat split; lia.
Qed.

(* the two octets holding offset*8 + M give back M and the offset *)
Lemma frag_bits off m : m < 2 ->
  let w := off * 8 + m in
  (w mod 256) mod 2 = m /\ ((w / 256) * 256 + w mod 256) / 8 = off.
Proof. intros M. cbv zeta. dmlia. Qed.

Lemma frag_hdr_at h pre post : XM.frag_valid h = true ->
  ext_hdr_at (B (pre ++ XV.frag_wire_bytes h ++ post)) (len pre) XS.KFragment 8
             (XM.frag_is_fragmenting_payload h).
Proof.
  intros V. apply XP.frag_valid_inv in V. destruct V as (_ & HO & _).
  cbn [ext_hdr_at]. split; [reflexivity|].
  set (w := XM.f_fragment_offset h * 8 + (if XM.f_more_fragments h then 1 else 0)).
  assert (E : forall i x, nth_error (XV.frag_wire_bytes h) (N.to_nat i) = Some x ->
              B (pre ++ XV.frag_wire_bytes h ++ post) (len pre + i) = x).
  { intros i x H. rewrite B_app_r by lia. replace (len pre + i - len pre) with i by lia.
    unfold B. assert (LT : (N.to_nat i < length (XV.frag_wire_bytes h))%nat) by (apply nth_error_Some; congruence).
    rewrite app_nth1 by exact LT. apply nth_error_nth. exact H. }
  rewrite (E 3 (w mod 256)) by reflexivity. rewrite (E 2 (w / 256)) by reflexivity.
  replace (len pre + 2 + 1) with (len pre + 3) by lia. rewrite (E 3 (w mod 256)) by reflexivity.
  destruct (frag_bits (XM.f_fragment_offset h) (if XM.f_more_fragments h then 1 else 0)
              ltac:(destruct (XM.f_more_fragments h); lia)) as (EM & EO).
  cbv zeta in EM, EO. fold w in EM, EO. rewrite EM, EO.
  unfold XM.frag_is_fragmenting_payload. destruct (XM.f_more_fragments h); reflexivity.
Qed.

Lemma auth_hdr_at h pre post : XM.auth_valid h = true ->
  ext_hdr_at (B (pre ++ XV.auth_wire_bytes h ++ post)) (len pre) XS.KAuth (XM.auth_header_len h) false.
Proof.
  intros V. apply XP.auth_valid_inv in V. destruct V as (_ & _ & _ & HL & HI & _).
  assert (E : B (pre ++ XV.auth_wire_bytes h ++ post) (len pre + 1) = XM.a_raw_icv_len h + 1).
  { rewrite B_app_r by lia. replace (len pre + 1 - len pre) with 1 by lia.
    unfold XV.auth_wire_bytes, XS.wire_auth_header. cbn [app]. rewrite B_consS by lia. change (1 - 1) with 0.
    rewrite B_cons0. rewrite HI. clear - HL. dmlia. }
  cbn [ext_hdr_at]. rewrite E. unfold XM.auth_header_len. repeat split; lia.
Qed.

Lemma raw_wire_len h : XM.raw_valid h = true -> len (XV.raw_wire_bytes h) = XM.raw_header_len h.
Proof.
  intros V. apply (XP.raw_to_bytes_len h); [exact V|]. apply XP.raw_wire. exact V.
Qed.
Lemma auth_wire_len h : XM.auth_valid h = true -> len (XV.auth_wire_bytes h) = XM.auth_header_len h.
Proof.
  intros V. unfold XV.auth_wire_bytes. rewrite <- (XP.auth_wire h V). apply XP.auth_bytes_len. exact V.
Qed.
Lemma frag_wire_len h : len (XV.frag_wire_bytes h) = 8.
Proof. reflexivity. Qed.

Lemma raw_C h k : XM.raw_valid h = true ->
  match k with XS.KFragment | XS.KAuth => False | _ => True end ->
  exists nh hl fr tl, Some (XM.r_next_header h) = Some nh /\ Some (XM.raw_header_len h, false) = Some (hl, fr) /\
    XV.raw_wire_bytes h = nh :: tl /\ len (XV.raw_wire_bytes h) = hl /\
    forall pre post, ext_hdr_at (B (pre ++ XV.raw_wire_bytes h ++ post)) (len pre) k hl fr.
Proof.
  intros V K. eexists _, _, _, _. split; [reflexivity|]. split; [reflexivity|]. split; [reflexivity|].
  split; [apply raw_wire_len; exact V|]. intros pre post. apply raw_hdr_at; assumption.
Qed.

Lemma ext_C x : XM.exts6_valid x = true -> forall k,
  match XV.get_wire x k with
  | Some w => exists nh hl fr tl, XV.get_nh x k = Some nh /\ ext_info6 x k = Some (hl, fr) /\ w = nh :: tl /\
                len w = hl /\ forall pre post, ext_hdr_at (B (pre ++ w ++ post)) (len pre) k hl fr
  | None => XV.get_nh x k = None /\ ext_info6 x k = None
  end.
Proof.
  intros V k. apply XP.exts6_valid_inv in V. destruct V as (Vh & Vd & Vr & Vf & Va).
  destruct k; cbn [XV.get_wire XV.get_nh ext_info6 ext_len6].
  - destruct (XM.hop_by_hop_options x) as [h|]; cbn [option_map XM.opt_valid] in *; [|split; reflexivity].
    apply raw_C; [exact Vh|exact I].
  - destruct (XM.destination_options x) as [h|]; cbn [option_map XM.opt_valid] in *; [|split; reflexivity].
    apply raw_C; [exact Vd|exact I].
  - destruct (XM.routing x) as [r|]; cbn [option_map XM.opt_valid] in *; [|split; reflexivity].
    apply XP.routing_valid_inv in Vr. destruct Vr as [Vrt _]. apply raw_C; [exact Vrt|exact I].
  - destruct (XM.fragment x) as [f|]; cbn [option_map XM.opt_valid] in *; [|split; reflexivity].
    eexists _, _, _, _. split; [reflexivity|]. split; [reflexivity|]. split; [reflexivity|].
    split; [reflexivity|]. intros pre post. apply frag_hdr_at. exact Vf.
  - destruct (XM.auth x) as [a|]; cbn [option_map XM.opt_valid] in *; [|split; reflexivity].
    eexists _, _, _, _. split; [reflexivity|]. split; [reflexivity|]. split; [reflexivity|].
    split; [apply auth_wire_len; exact Va|]. intros pre post. apply auth_hdr_at. exact Va.
  - destruct (XM.routing x) as [r|]; cbn [option_map XM.opt_valid] in *; [|split; reflexivity].
    apply XP.routing_valid_inv in Vr. destruct Vr as [_ Vfd].
    destruct (XM.rt_final_destination_options r) as [h|]; cbn [option_map XM.opt_valid] in *; [|split; reflexivity].
    apply raw_C; [exact Vfd|exact I].
Qed.

(* set_next_headers changes the next_header fields only *)
Lemma ext_info6_snh x n k : ext_info6 (fst (XM.set_next_headers x n)) k = ext_info6 x k.
Proof.
  destruct x as [[h|] [d|] [[rt [fd|]]|] [fr|] [a|]]; destruct k; reflexivity.
Qed.
Lemma ext_layout6_full_snh x n : ext_layout6_full (fst (XM.set_next_headers x n)) = ext_layout6_full x.
Proof.
  unfold ext_layout6_full, XS.in_rfc_order, XS.rfc8200_order. cbn [flat_map]. rewrite !ext_info6_snh. reflexivity.
Qed.

Lemma ext_layout6_forget x :
  map (fun e => (fst e, fst (snd e))) (ext_layout6_full x) = ext_layout6 x.
Proof.
  destruct x as [[h|] [d|] [[rt [fd|]]|] [fr|] [a|]]; reflexivity.
Qed.

(* the IPv6 chain of a built packet *)
Lemma chain6 x n pre post : XM.exts6_valid x = true -> n < 256 -> XS.is_ext_number n = false ->
  let s := XM.set_next_headers x n in
  XM.write (fst s) (snd s) = (XV.rfc_order_bytes (fst s), XM.Ok tt) /\
  chain_full (B (pre ++ XV.rfc_order_bytes (fst s) ++ post)) (len pre) (snd s) (ext_layout6_full x) n.
Proof.
  intros V N X. cbv zeta. split; [apply XP.link_write_order; assumption|].
  destruct (XP.set_next_headers_facts x n V N) as (V1 & _ & _).
  rewrite <- (ext_layout6_full_snh x n). unfold ext_layout6_full, XV.rfc_order_bytes. rewrite !in_rfc_order_is.
  apply (chain_generic (XV.get_wire (fst (XM.set_next_headers x n))) (XV.get_nh (fst (XM.set_next_headers x n)))).
  - apply ext_C. exact V1.
  - rewrite <- in_rfc_order_is. apply XP.set_next_headers_linked.
Qed.

Lemma B_at (pre d : bytes) k i : k = len pre -> B (pre ++ d) (k + i) = B d i.
Proof. intros ->. rewrite B_app_r by lia. f_equal. lia. Qed.
Lemma W_at (pre d : bytes) k i : k = len pre -> W (pre ++ d) (k + i) = W d i.
Proof. intros E. unfold W. rewrite <- N.add_assoc. rewrite !(B_at pre d k) by exact E. reflexivity. Qed.

Lemma ip4_built_fields e c p bs h x : cfg_wf c = true -> build e c p = BOk bs -> c_net c = NtIpv4 h x ->
  B bs (off_net c + 0) = 64 + (5 + Ipv4.i4o_len (Ipv4.i4_options h) / 4) /\
  W bs (off_net c + 2) = len bs - off_net c /\
  W bs (off_net c + 6) = ip4_flags_word h /\
  B bs (off_net c + 9) = snd (XM.set_next_headers4 x (tr_ip_number (c_transport c))) /\
  off_net c + Ipv4.ip4_header_len h <= len bs /\ len bs - off_net c < 65536 /\
  Ipv4.i4o_len (Ipv4.i4_options h) <= 40 /\ Ipv4.i4o_len (Ipv4.i4_options h) mod 4 = 0 /\
  Ipv4.i4_fragment_offset h < 8192 /\ B bs (off_net c + 6) = (ip4_flags_word h / 256) mod 256.
Proof.
  intros W E EN. destruct (cfg_wf_inv c W) as (WL & WV & WN & WT & WS).
  rewrite EN in WN. cbn [net_wf] in WN. apply andb_true_iff in WN. destruct WN as [WH WX].
  destruct (ipv4_consistent e c p bs h x W E EN)
    as (WF & _ & _ & TL & LE & LT & PR & _ & _ & _ & _ & _ & _ & OP & DF & MF & FO).
  destruct (build_inv e c p bs W E) as (nb & xb & tb & EB & P).
  destruct (built_offsets e c p nb xb tb bs WL P EB) as (_ & DN & _).
  destruct P as (_ & _ & _ & P). rewrite EN in P. destruct P as (EH & _).
  destruct (ip4_layout_fields _ nb (xb ++ tb ++ p) WF EH) as (F0 & F2 & F6 & F9 & F6b). cbv zeta in *.
  destruct (Ipv4Proofs.wf_ip4_facts h WH) as (_ & (R5 & _) & _ & WO).
  destruct (Ipv4Proofs.wf_i4o_facts _ WO) as (OL & OM & _).
  rewrite <- !B_drop, <- !W_drop, DN.
  rewrite F0, F2, F6, F9, F6b.
  rewrite OP, TL, PR. unfold ip4_flags_word. rewrite DF, MF, FO.
  split; [reflexivity|]. split; [reflexivity|]. split; [reflexivity|]. split; [reflexivity|].
  split; [exact LE|]. split; [exact LT|]. split; [exact OL|]. split; [exact OM|]. split; [exact R5|reflexivity].
Qed.

Lemma ip6_built_fields e c p bs h x : cfg_wf c = true -> build e c p = BOk bs -> c_net c = NtIpv6 h x ->
  B bs (off_net c + 0) / 16 = 6 /\
  W bs (off_net c + 4) = len bs - off_net c - 40 /\
  B bs (off_net c + 6) = snd (XM.set_next_headers x (tr_ip_number (c_transport c))) /\
  off_net c + 40 <= len bs /\ len bs - off_net c - 40 < 65536.
Proof.
  intros W E EN. destruct (cfg_wf_inv c W) as (WL & WV & WN & WT & WS).
  rewrite EN in WN. cbn [net_wf] in WN. apply andb_true_iff in WN. destruct WN as [WH WX].
  destruct (ipv6_consistent e c p bs h x W E EN) as (_ & LE & PL & LT & NH & _).
  destruct (build_inv e c p bs W E) as (nb & xb & tb & EB & P).
  destruct (built_offsets e c p nb xb tb bs WL P EB) as (_ & DN & _).
  destruct P as (_ & _ & _ & P). rewrite EN in P. destruct P as (-> & _).
  set (hf := v6_final h x (c_transport c) (len p)) in *.
  assert (WF : ip6_wf hf = true) by exact WH.
  assert (PLT : BitFields.Model.v6_payload_length hf < 65536) by (rewrite PL; exact LT).
  destruct (ip6_layout_fields hf (xb ++ tb ++ p) WF PLT) as (F0 & F4 & F6). cbv zeta in *.
  rewrite <- !B_drop, <- !W_drop, DN.
  rewrite F0, F4, F6, PL, NH.
  split; [reflexivity|]. split; [reflexivity|]. split; [reflexivity|]. split; [exact LE|exact LT].
Qed.

Lemma chain_built e c p bs : cfg_wf c = true -> build e c p = BOk bs -> chain_pre c = true ->
  match c_net c with
  | NtArp _ => True
  | _ => chain_full (B bs) (off_exts c) (B bs (ip_next_field_off c)) (ext_layout_full c)
                    (tr_ip_number (c_transport c))
  end.
Proof.
  intros W E CP. destruct (cfg_wf_inv c W) as (WL & WV & WN & WT & WS).
  pose proof (tr_ip_number_lt _ WT) as NL.
  destruct (build_inv e c p bs W E) as (nb & xb & tb & EB & LN & _ & _ & P).
  assert (LPH : off_exts c = len (link_bytes c ++ vlan_bytes c ++ nb)).
  { rewrite !len_app, (link_bytes_len c WL), (vlan_bytes_len c), LN. unfold off_exts, off_net. lia. }
  assert (EB' : bs = (link_bytes c ++ vlan_bytes c ++ nb) ++ xb ++ tb ++ p) by (rewrite EB, <- !app_assoc; reflexivity).
  set (pre := link_bytes c ++ vlan_bytes c ++ nb) in *. clearbody pre. clear EB LN.
  unfold chain_pre in CP. unfold ip_next_field_off, ext_layout_full. rewrite LPH.
  destruct (c_net c) as [h x|h x|a] eqn:EN; [| |exact I]; cbn [net_wf] in WN;
    apply andb_true_iff in WN; destruct WN as [WH WX]; destruct P as (_ & EWR & _).
  - destruct (ip4_built_fields e c p bs h x W E EN) as (_ & _ & _ & F9 & _). rewrite F9.
    rewrite (XP.link_write_order4 x _ WX) in EWR. injection EWR as EX.
    destruct x as [[a|]]; cbn [XM.auth4 XM.set_next_headers4 snd fst] in *.
    + unfold XV.rfc_order_bytes4, XS.in_rfc_order, XS.rfc8200_order in EX.
      cbn [flat_map XV.get_wire4 XM.auth4 option_map app map snd concat] in EX.
      set (a1 := XM.auth_set_next_header a (tr_ip_number (c_transport c))) in *.
      assert (V1 : XM.auth_valid a1 = true).
      { apply XP.auth_set_valid; [exact WX|exact NL]. }
      cbn [chain_full]. split; [reflexivity|].
      assert (EB2 : bs = pre ++ XV.auth_wire_bytes a1 ++ (tb ++ p)).
      { rewrite EB', <- EX, <- !app_assoc. reflexivity. }
      rewrite EB2. split; [apply (auth_hdr_at a1 _ _ V1)|].
      rewrite B_app_r by lia. replace (len pre - len pre) with 0 by lia. reflexivity.
    + reflexivity.
  - destruct (ip6_built_fields e c p bs h x W E EN) as (_ & _ & F6 & _). rewrite F6.
    apply negb_true_iff in CP.
    destruct (chain6 x _ pre (tb ++ p) WX NL CP) as (EW2 & CH).
    cbv zeta in EW2, CH. rewrite EW2 in EWR. injection EWR as EX.
    rewrite EB', <- EX. exact CH.
Qed.

Lemma ext_layout_forget c : map (fun e => (fst e, fst (snd e))) (ext_layout_full c) = ext_layout c.
Proof.
  unfold ext_layout_full, ext_layout. destruct (c_net c) as [h x|h x|a]; [|apply ext_layout6_forget|reflexivity].
  unfold ext_layout4. destruct (XM.auth4 x); reflexivity.
Qed.

Theorem next_protocol_fields e c p bs : cfg_wf c = true -> build e c p = BOk bs ->
  match c_link c with
  | LkNone => True
  | LkEthernet2 _ _ => W bs 12 = link_announces c
  | LkLinuxSll pt _ _ => W bs 0 = pt /\ W bs 2 = 1 /\ W bs 14 = net_ether_type (c_net c) /\ c_vlan c = VlNone
  end /\
  match c_vlan c with
  | VlNone => True
  | VlSingle _ => W bs (off_vlan c + 2) = net_ether_type (c_net c)
  | VlDouble _ _ => W bs (off_vlan c + 2) = 33024 /\ W bs (off_vlan c + 6) = net_ether_type (c_net c)
  end /\
  match c_net c with
  | NtArp _ => True
  | _ => chain_pre c = true ->
         chain_at (B bs) (off_exts c) (B bs (ip_next_field_off c)) (ext_layout c) (tr_ip_number (c_transport c))
  end.
Proof.
  intros W E. destruct (cfg_wf_inv c W) as (WL & WV & WN & WT & WS).
  destruct (build_inv e c p bs W E) as (nb & xb & tb & EB & _).
  split; [|split].
  - rewrite EB. apply (link_fields c _ WL WS).
  - pose proof (vlan_fields c (nb ++ xb ++ tb ++ p)) as VF. cbv zeta in VF.
    unfold off_vlan. rewrite EB. rewrite !(W_at (link_bytes c)) by (symmetry; apply link_bytes_len; exact WL).
    exact VF.
  - pose proof (chain_built e c p bs W E) as CB.
    destruct (c_net c); [| |exact I]; intros CP; specialize (CB CP); apply chain_full_at in CB;
      rewrite ext_layout_forget in CB; exact CB.
Qed.
