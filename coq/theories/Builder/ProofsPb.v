(* Builder/ProofsPb.v -- property C10: the wire reference decoder of C03 accepts a
   built packet and returns exactly the configured layers at their computed offsets
   (`expected_x` of Builder/SpecX.v).  Composition of the byte facts of ProofsNx.v /
   ProofsTr.v (what the builder wrote) with the acceptance lemmas of ProofsWire.v (what
   the decoder needs). *)
From EP Require Import Base.Bytes Checksum.Spec Checksum.Model Checksum.Proofs.
From EP Require Import Checksum.ProtoTypes Checksum.ProtoSpec.
From EP Require Import Roundtrip.Common Roundtrip.CommonProofs Roundtrip.LinkNetLemmas.
From EP Require Roundtrip.Spec Roundtrip.Tcp Roundtrip.TcpProofs Roundtrip.Ipv4 Roundtrip.Ipv4Proofs.
From EP Require CtlMsg.Spec Roundtrip.Icmp4 Roundtrip.Icmp6.
From EP Require ExtChain.Spec ExtChain.Model ExtChain.View ExtChain.Proofs BitFields.Model.
From EP Require Import Parse.Types Parse.View Parse.WireSpec.
From EP Require Import Builder.Model Builder.Spec Builder.Proofs Builder.ProofsCk Builder.SpecX Builder.ProofsTr
  Builder.ProofsNx Builder.ProofsWire.
From Coq Require Import ZArith Lia ZifyN ZifyBool.
Local Open Scope N_scope.

Lemma seg_len e c p bs : cfg_wf c = true -> build e c p = BOk bs -> (forall a, c_net c <> NtArp a) ->
  off_transport c + tr_header_len (c_transport c) + len p = len bs.
Proof.
  intros WF E NA. rewrite (build_size e c p bs WF E).
  unfold final_size, off_transport, off_net, transport_len.
  destruct (c_net c) as [h x|h x|a]; [lia|lia|destruct (NA a eq_refl)].
Qed.

Lemma tcp_doff_byte ol b : ol <= 40 -> ol mod 4 = 0 -> b <= 1 -> ((5 + ol / 4) * 16 + b) / 16 * 4 = 20 + ol.
Proof. intros H1 H2 H3. zify; Z.div_mod_to_equations; lia. Qed.

Lemma udp_field sp dp ul ck p : ul < 65536 ->
  W (th_wire (THUdp {| u_sport := sp; u_dport := dp; u_length := ul |}) ck ++ p) 4 = ul.
Proof.
  intros L. cbn [th_wire]. unfold udp_wire, w16, to_be16. cbn [u_sport u_dport u_length app].
  unfold W. change (B _ 4) with ((ul / 256) mod 256). change (B _ (4 + 1)) with (ul mod 256).
  apply (u16_be_roundtrip ul L).
Qed.
Lemma tcp_field t ck p : Tcp.wf_tcp t = true ->
  B (th_wire (THTcp (tcp_hdr_of t)) ck ++ p) 12 / 16 * 4 = Tcp.header_len t.
Proof.
  intros WT. destruct (TcpProofs.wf_tcp_facts t WT) as (_ & _ & _ & _ & _ & _ & _ & WO).
  destruct (TcpProofs.opt_wf_facts _ WO) as (OL & OM & _).
  cbn [th_wire]. unfold tcp_wire, w16, w32, to_be16, to_be32. cbn [app].
  change (B _ 12) with (tcp_data_offset (tcp_hdr_of t) * 16 + bit (t_ns (tcp_hdr_of t))).
  unfold tcp_data_offset, tcp_hdr_of. cbn [t_options t_ns]. rewrite (TcpProofs.len_take_opts t WT).
  unfold Tcp.header_len. apply tcp_doff_byte; [exact OL|exact OM|destruct (Tcp.ns t); cbn [bit]; lia].
Qed.
(* type and code octets of every configured ICMPv4 message, as the decoder reads them *)
Lemma icmp4_fields k ck p :
  B (icmp4_wire (c09_icmp4 k) ck ++ p) 0 = fst (icmp4_tc k) /\
  B (icmp4_wire (c09_icmp4 k) ck ++ p) 1 = snd (icmp4_tc k).
Proof.
  destruct k as [ty c b4 b5 b6 b7|id sq|d|rc g0 g1 g2 g3|id sq|tc|pp|m|m];
    try destruct d; try destruct pp; split; reflexivity.
Qed.

(* what wire_transport returns for a configuration *)
Definition tr_done (c : cfg) (total : N) (pk : vpacket) : vpacket :=
  match exp_transport c total with Some v => with_tr pk v | None => pk end.

Lemma wire_transport_built e c p bs : cfg_wf c = true -> build e c p = BOk bs ->
  payload_admitted c (len p) = true ->
  match c_net c with
  | NtArp _ => True
  | _ =>
    off_transport c + tr_header_len (c_transport c) + len p = len bs /\
    forall pk src frag,
      (frag = false -> is_fragmented c = false) ->
      wire_transport bs pk (tr_ip_number (c_transport c)) frag src (off_transport c) (len bs)
      = VOk (if frag then pk else tr_done c (len bs) pk)
  end.
Proof.
  intros WF E PA. destruct (cfg_wf_inv c WF) as (WL & WV & WN & WT & WS).
  (* the net layer matters only in that it is an IP header, and for ICMPv6 *)
  assert (G : (forall a, c_net c <> NtArp a) ->
    off_transport c + tr_header_len (c_transport c) + len p = len bs /\
    forall pk src frag,
      (frag = false -> is_fragmented c = false) ->
      wire_transport bs pk (tr_ip_number (c_transport c)) frag src (off_transport c) (len bs)
      = VOk (if frag then pk else tr_done c (len bs) pk));
    [|destruct (c_net c); [apply G; discriminate|apply G; discriminate|exact I]].
  intros NA. pose proof (seg_len e c p bs WF E NA) as LB. split; [exact LB|].
  intros pk src frag FR. destruct frag; [reflexivity|]. specialize (FR eq_refl).
  destruct (build_inv e c p bs WF E) as (nb & xb & tb & EB & P).
  destruct (built_offsets e c p nb xb tb bs WL P EB) as (_ & _ & _ & DT & _).
  pose proof (build_parts_fits e c p nb xb tb WF P NA) as BND.
  pose proof (built_transport e c p nb xb tb WF P NA) as TH.
  assert (PA' : match c_transport c with
                | TrNone n => raw_number_ok c n
                | TrIcmpv4 k => icmp4_admits k (len p)
                | _ => true
                end = true).
  { unfold payload_admitted in PA. rewrite FR in PA. destruct (c_net c); [exact PA|exact PA|destruct (NA _ eq_refl)]. }
  clear PA. unfold tr_done, exp_transport.
  set (pos := off_transport c) in *. set (lim := len bs) in *.
  assert (DR : forall i, B bs (pos + i) = B (tb ++ p) i) by (intros i; rewrite <- B_drop, DT; reflexivity).
  assert (DW : forall i, W bs (pos + i) = W (tb ++ p) i) by (intros i; rewrite <- W_drop, DT; reflexivity).
  destruct (c_transport c) as [n|sp dp|t|k|k] eqn:ET; cbn [th_of tr_ip_number tr_header_len tr_wf] in *.
  - (* raw *)
    unfold raw_number_ok in PA'. apply andb_true_iff in PA'. destruct PA' as [PA' _].
    apply negb_true_iff in PA'. rewrite !orb_false_iff in PA'. destruct PA' as ((((P1 & P6) & P17) & P58) & _).
    apply N.eqb_neq in P1, P6, P17, P58. apply wire_transport_other; assumption.
  - (* UDP *)
    destruct TH as (ck & _ & ->). unfold wire_transport. change (17 =? 1) with false. change (17 =? 17) with true.
    cbv iota. bsplit WT. apply wire_udp_ok; [clear - LB; lia|]. rewrite DW.
    rewrite udp_field by (clear - BND; lia). clear - LB. lia.
  - (* TCP *)
    destruct TH as (ck & _ & ->). unfold wire_transport. change (6 =? 1) with false. change (6 =? 17) with false.
    change (6 =? 6) with true. cbv iota.
    apply wire_tcp_ok; [unfold Tcp.header_len; clear; lia|clear - LB; lia|]. rewrite DR. apply tcp_field. exact WT.
  - (* ICMPv4 *)
    unfold icmp4_of in TH. cbn [option_map] in TH.
    destruct TH as (ck & _ & ->). unfold wire_transport. change (1 =? 1) with true. cbv iota.
    destruct (icmp4_fields k ck p) as [T0 T1]. cbn [th_wire] in DR.
    assert (T0' : B bs pos = fst (icmp4_tc k))
      by (replace (B bs pos) with (B bs (pos + 0)) by (f_equal; lia); rewrite DR; exact T0).
    assert (T1' : B bs (pos + 1) = snd (icmp4_tc k)) by (rewrite DR; exact T1).
    pose proof (icmp4_hl_bounds k) as HLB.
    apply wire_icmp4_ok; [clear - LB HLB; lia|]. rewrite T0', T1'.
    unfold icmp4_admits in PA'. intros ADM.
    rewrite ADM in PA'. apply N.eqb_eq in PA'. clear - PA' LB. lia.
  - (* ICMPv6: refused by the builder in IPv4 *)
    destruct (c_net c) as [h x|h x|a] eqn:EN; [|clear EN|destruct (NA _ eq_refl)].
    + exfalso. pose proof (build_error_iff e c p EIcmpv6InIpv4 WF) as BE.
      assert (SO : spec_outcome c (len p) = OErr EIcmpv6InIpv4 \/ exists er, spec_outcome c (len p) = OErr er).
      { unfold spec_outcome. rewrite EN, ET. destruct (_ <? _); [right; eexists; reflexivity|left; reflexivity]. }
      destruct SO as [SO|(er & SO)].
      * apply BE in SO. rewrite E in SO. discriminate.
      * apply (build_error_iff e c p er WF) in SO. rewrite E in SO. discriminate.
    + unfold wire_transport. change (58 =? 1) with false. change (58 =? 17) with false.
      change (58 =? 6) with false. change (58 =? 58) with true. cbv iota. rewrite (icmp6_hl k) in *.
      apply wire_icmp6_ok; [clear - LB; lia|]. clear - LB BND. lia.
Qed.

Lemma layout6_sum x : sum_len (ext_layout6_full x) = XM.header_len x.
Proof.
  destruct x as [[h|] [d|] [[rt [fd|]]|] [fr|] [a|]];
    unfold ext_layout6_full, XS.in_rfc_order, XS.rfc8200_order, XM.header_len, sum_len;
    cbn [flat_map ext_info6 ext_len6 option_map app fold_right fst snd XM.hop_by_hop_options XM.destination_options
         XM.routing XM.fragment XM.auth XM.rt_routing XM.rt_final_destination_options];
    unfold XM.frag_header_len, XM.FRAG_LEN; lia.
Qed.
Lemma layout6_hop_first x : hop_first (ext_layout6_full x) = true.
Proof. destruct x as [[h|] [d|] [[rt [fd|]]|] [fr|] [a|]]; reflexivity. Qed.
Lemma layout6_any_frag x : any_frag (ext_layout6_full x) = XM.is_fragmenting_payload x.
Proof.
  destruct x as [[h|] [d|] [[rt [fd|]]|] [fr|] [a|]]; unfold any_frag, ext_layout6_full, XS.in_rfc_order,
    XS.rfc8200_order, XM.is_fragmenting_payload;
    cbn [flat_map ext_info6 ext_len6 option_map app existsb fst snd XM.hop_by_hop_options XM.destination_options
         XM.routing XM.fragment XM.auth XM.rt_routing XM.rt_final_destination_options orb];
    rewrite ?orb_false_r; reflexivity.
Qed.

Lemma admitted_number c plen : tr_wf (c_transport c) = true -> payload_admitted c plen = true ->
  match c_net c with
  | NtArp _ => True
  | NtIpv4 _ _ => tr_ip_number (c_transport c) <> 51
  | NtIpv6 _ _ => final_number (tr_ip_number (c_transport c)) /\ chain_pre c = true
  end.
Proof.
  intros WT PA. unfold payload_admitted in PA. unfold chain_pre.
  destruct (c_net c) as [h x|h x|a] eqn:EN; [| |exact I].
  - destruct (c_transport c) as [n|sp dp|t|k|k]; cbn [tr_ip_number]; try lia.
    unfold raw_number_ok in PA. rewrite EN in PA. apply andb_true_iff in PA. destruct PA as [PA _].
    apply negb_true_iff in PA. rewrite !orb_false_iff in PA. destruct PA as (_ & P51). apply N.eqb_neq in P51. exact P51.
  - destruct (c_transport c) as [n|sp dp|t|k|k]; cbn [tr_ip_number];
      try (split; [unfold final_number; lia|reflexivity]).
    unfold raw_number_ok in PA. rewrite EN in PA. apply andb_true_iff in PA. destruct PA as [PA PB].
    apply negb_true_iff in PA, PB. rewrite !orb_false_iff in PA, PB.
    destruct PA as (_ & P51). destruct PB as (((P0 & P43) & P44) & P60).
    apply N.eqb_neq in P51, P0, P43, P44, P60.
    split; [unfold final_number; tauto|].
    unfold XS.is_ext_number, XS.rfc8200_order. cbn [map existsb XS.ip_number_of].
    apply negb_true_iff. rewrite !orb_false_iff.
    repeat split; try (apply N.eqb_neq; assumption); reflexivity.
Qed.

Definition net_done (c : cfg) (total : N) (pk : vpacket) : vpacket :=
  let pk1 := mkVPacket (v_link pk) (v_exts pk) (exp_net_x c total) (v_transport pk) in
  match c_net c with
  | NtArp _ => pk1
  | _ => if is_fragmented_x c then pk1 else tr_done c total pk1
  end.

Lemma first_ext_number6 c h x Bf pos first last : c_net c = NtIpv6 h x ->
  chain_full Bf pos first (ext_layout6_full x) last ->
  first_ext_number c = if XM.header_len x =? 0 then None else Some first.
Proof.
  intros EN CH. unfold first_ext_number, ext_layout. rewrite EN.
  rewrite <- (layout6_sum x). rewrite <- (ext_layout6_forget x).
  destruct (ext_layout6_full x) as [|[k [hl fr]] r]; [reflexivity|].
  cbn [chain_full] in CH. destruct CH as (E1 & HA & _).
  cbn [map fst snd sum_len fold_right]. fold (sum_len r).
  assert (1 <= hl) by (destruct k; cbn [ext_hdr_at] in HA; lia).
  replace (hl + sum_len r =? 0) with false by (symmetry; apply N.eqb_neq; lia).
  rewrite E1. reflexivity.
Qed.

(* the fixed IP header: always accepted, the decoder continues with the extension /
   transport stage over exactly the rest of the packet *)
Lemma ip_gen_ipv4 e c p bs h x : cfg_wf c = true -> build e c p = BOk bs -> c_net c = NtIpv4 h x ->
  forall pk src,
    wire_ipv4 bs pk src (off_net c) (len bs) = wire_ipv4_tail bs pk (off_net c) (Ipv4.ip4_header_len h) (len bs) /\
    wire_ip bs pk src (off_net c) (len bs) = wire_ipv4_tail bs pk (off_net c) (Ipv4.ip4_header_len h) (len bs).
Proof.
  intros WF E EN pk src.
  destruct (ip4_built_fields e c p bs h x WF E EN) as (F0 & F2 & F6 & F9 & LE & LT & OL & OM & FO & F6b).
  rewrite N.add_0_r in F0. unfold Ipv4.ip4_header_len in *.
  assert (LE' : 20 + Ipv4.i4o_len (Ipv4.i4_options h) <= len bs - off_net c) by (clear - LE; lia).
  exact (wire_ipv4_ok bs pk src (off_net c) (len bs) _ OL OM F0 LE' F2).
Qed.

Lemma ip_gen_ipv6 e c p bs h x : cfg_wf c = true -> build e c p = BOk bs -> c_net c = NtIpv6 h x ->
  forall pk src,
    wire_ipv6 bs pk src (off_net c) (len bs)
      = wire_ipv6_tail bs pk LsIpv6HeaderPayloadLen LsIpv6HeaderPayloadLen (off_net c) (len bs) /\
    wire_ip bs pk src (off_net c) (len bs)
      = wire_ipv6_tail bs pk LsIpv6HeaderPayloadLen LsIpv6HeaderPayloadLen (off_net c) (len bs).
Proof.
  intros WF E EN pk src.
  destruct (ip6_built_fields e c p bs h x WF E EN) as (F0 & F4 & F6 & LE & LT).
  rewrite N.add_0_r in F0.
  assert (LE' : 40 <= len bs - off_net c) by (clear - LE; lia).
  exact (wire_ipv6_ok bs pk src (off_net c) (len bs) LE' F0 F4).
Qed.

(* behind it the decoder walks the extension headers to the transport position; needs only that
   the announced number is not read as a further extension header *)
Lemma net_gen_ipv4 e c p bs h x : cfg_wf c = true -> build e c p = BOk bs -> c_net c = NtIpv4 h x ->
  tr_ip_number (c_transport c) <> 51 ->
  forall pk,
    wire_ipv4_tail bs pk (off_net c) (Ipv4.ip4_header_len h) (len bs) =
    wire_transport bs (mkVPacket (v_link pk) (v_exts pk) (exp_net_x c (len bs)) (v_transport pk))
      (tr_ip_number (c_transport c)) (ipv4_frag h) LsIpv4HeaderTotalLen (off_transport c) (len bs).
Proof.
  intros WF E EN AN pk. destruct (cfg_wf_inv c WF) as (WL & WV & WN & WT & WS).
  destruct (ip4_built_fields e c p bs h x WF E EN) as (F0 & F2 & F6 & F9 & LE & LT & OL & OM & FO & F6b).
  assert (LB : off_transport c + tr_header_len (c_transport c) + len p = len bs)
    by (apply (seg_len e c p bs WF E); intros a; rewrite EN; discriminate).
  pose proof (chain_built e c p bs WF E) as CB. unfold chain_pre in CB. rewrite EN in CB. specialize (CB eq_refl).
  unfold ext_layout_full, ip_next_field_off, off_exts, ip_header_len in CB. rewrite EN in CB.
  unfold Ipv4.ip4_header_len in *.
  set (pos := off_net c) in *. set (lim := len bs) in *. set (ol := Ipv4.i4o_len (Ipv4.i4_options h)) in *.
  assert (FRG : ipv4_fragmented bs pos = ipv4_frag h).
  { unfold ipv4_fragmented. rewrite F6b, F6. apply ip4_frag_bits. exact FO. }
  unfold exp_net_x. rewrite EN. cbv zeta.
  assert (OT : off_transport c = pos + (20 + ol) + XM.header_len4 x).
  { unfold off_transport, net_len. rewrite EN. unfold Ipv4.ip4_header_len. fold ol. fold pos. clear. lia. }
  unfold off_exts, ip_header_len. rewrite EN. unfold Ipv4.ip4_header_len. fold ol. fold pos.
  destruct x as [[a|]]; cbn [XM.auth4 XM.set_next_headers4 snd XM.header_len4] in *.
  - cbn [chain_full] in CB. destruct CB as (_ & HA & BN).
    rewrite (wire_ipv4_tail_auth bs pk pos (20 + ol) lim (XM.auth_header_len a) F9)
      by (try exact HA; clear - LB OT; pose proof (N.le_0_l (len p)); lia).
    rewrite FRG, BN, <- OT. reflexivity.
  - cbn [chain_full] in CB.
    rewrite (wire_ipv4_tail_plain bs pk pos (20 + ol) lim _ F9 AN).
    rewrite N.add_0_r in OT. rewrite FRG, <- OT. reflexivity.
Qed.

Lemma net_gen_ipv6 e c p bs h x : cfg_wf c = true -> build e c p = BOk bs -> c_net c = NtIpv6 h x ->
  chain_pre c = true ->
  forall pk,
    wire_ipv6_tail bs pk LsIpv6HeaderPayloadLen LsIpv6HeaderPayloadLen (off_net c) (len bs) =
    wire_transport bs (mkVPacket (v_link pk) (v_exts pk) (exp_net_x c (len bs)) (v_transport pk))
      (tr_ip_number (c_transport c)) (XM.is_fragmenting_payload x) LsIpv6HeaderPayloadLen
      (off_transport c) (len bs).
Proof.
  intros WF E EN CP pk. destruct (cfg_wf_inv c WF) as (WL & WV & WN & WT & WS).
  destruct (ip6_built_fields e c p bs h x WF E EN) as (F0 & F4 & F6 & LE & LT).
  assert (LB : off_transport c + tr_header_len (c_transport c) + len p = len bs)
    by (apply (seg_len e c p bs WF E); intros a; rewrite EN; discriminate).
  assert (FN : final_number (tr_ip_number (c_transport c))).
  { unfold chain_pre in CP. rewrite EN in CP. apply negb_true_iff in CP.
    unfold XS.is_ext_number, XS.rfc8200_order in CP. cbn [map existsb XS.ip_number_of] in CP.
    rewrite !orb_false_iff in CP. unfold final_number.
    repeat match goal with H : _ /\ _ |- _ => destruct H end.
    repeat match goal with H : (_ =? _) = false |- _ => apply N.eqb_neq in H end.
    repeat split; intros Q; rewrite Q in *; congruence. }
  pose proof (chain_built e c p bs WF E CP) as CB. rewrite EN in CB.
  unfold ext_layout_full, ip_next_field_off, off_exts, ip_header_len in CB. rewrite EN in CB.
  assert (OT : off_transport c = off_net c + 40 + XM.header_len x).
  { unfold off_transport, net_len. rewrite EN. clear. lia. }
  pose proof (first_ext_number6 c h x _ _ _ _ EN CB) as FE.
  set (pos := off_net c) in *. set (lim := len bs) in *.
  rewrite (wire_ipv6_tail_ok bs pk _ _ pos lim (ext_layout6_full x) (tr_ip_number (c_transport c)) CB
             (layout6_hop_first x) FN)
    by (rewrite layout6_sum; clear - LB OT; pose proof (N.le_0_l (len p)); lia).
  rewrite layout6_sum, layout6_any_frag, <- OT.
  unfold exp_net_x. rewrite EN. cbv zeta.
  unfold off_exts, ip_header_len. rewrite EN. fold pos. rewrite FE. reflexivity.
Qed.

(* with an admitted payload the transport stage completes the view *)
Lemma net_back_ipv4 e c p bs h x : cfg_wf c = true -> build e c p = BOk bs ->
  payload_admitted c (len p) = true -> c_net c = NtIpv4 h x ->
  forall pk src,
    wire_ipv4 bs pk src (off_net c) (len bs) = VOk (net_done c (len bs) pk) /\
    wire_ip bs pk src (off_net c) (len bs) = VOk (net_done c (len bs) pk).
Proof.
  intros WF E PA EN pk src. destruct (cfg_wf_inv c WF) as (_ & _ & _ & WT & _).
  pose proof (wire_transport_built e c p bs WF E PA) as TB. rewrite EN in TB. destruct TB as (_ & TB).
  pose proof (admitted_number c (len p) WT PA) as AN. rewrite EN in AN.
  destruct (ip_gen_ipv4 e c p bs h x WF E EN pk src) as (E1 & E2).
  rewrite E1, E2, (net_gen_ipv4 e c p bs h x WF E EN AN pk).
  rewrite TB by (intros FR; unfold is_fragmented; rewrite EN; exact FR).
  unfold net_done, is_fragmented_x. rewrite EN. cbv zeta.
  destruct (ipv4_frag h); split; reflexivity.
Qed.

Lemma net_back_ipv6 e c p bs h x : cfg_wf c = true -> build e c p = BOk bs ->
  payload_admitted c (len p) = true -> c_net c = NtIpv6 h x ->
  forall pk src,
    wire_ipv6 bs pk src (off_net c) (len bs) = VOk (net_done c (len bs) pk) /\
    wire_ip bs pk src (off_net c) (len bs) = VOk (net_done c (len bs) pk).
Proof.
  intros WF E PA EN pk src. destruct (cfg_wf_inv c WF) as (_ & _ & _ & WT & _).
  pose proof (wire_transport_built e c p bs WF E PA) as TB. rewrite EN in TB. destruct TB as (_ & TB).
  pose proof (admitted_number c (len p) WT PA) as AN. rewrite EN in AN. destruct AN as (_ & CP).
  destruct (ip_gen_ipv6 e c p bs h x WF E EN pk src) as (E1 & E2).
  rewrite E1, E2, (net_gen_ipv6 e c p bs h x WF E EN CP pk).
  rewrite TB by (intros _; unfold is_fragmented; rewrite EN; reflexivity).
  unfold net_done, is_fragmented_x. rewrite EN. cbv zeta.
  destruct (XM.is_fragmenting_payload x); split; reflexivity.
Qed.

Lemma net_back_arp e c p bs a : cfg_wf c = true -> build e c p = BOk bs -> c_net c = NtArp a ->
  forall pk src, wire_arp bs pk src (off_net c) (len bs) = VOk (net_done c (len bs) pk).
Proof.
  intros WF E EN pk src. destruct (cfg_wf_inv c WF) as (WL & WV & WN & WT & WS).
  rewrite EN in WN. cbn [net_wf] in WN.
  pose proof (build_size e c p bs WF E) as LEN.
  destruct (build_inv e c p bs WF E) as (nb & xb & tb & EB & P).
  destruct (built_offsets e c p nb xb tb bs (proj1 (cfg_wf_inv c WF)) P EB) as (_ & DN & _).
  destruct P as (_ & _ & _ & P). rewrite EN in P. destruct P as (-> & _).
  unfold net_done, exp_net_x. rewrite EN. cbv zeta.
  assert (L8 : 8 <= arp_packet_len a) by (unfold arp_packet_len; lia).
  apply wire_arp_ok; [exact L8|rewrite LEN; unfold final_size, off_net, net_len; rewrite EN; lia|].
  rewrite <- !B_drop, DN.
  unfold arp_to_bytes, arp_packet_len. unfold u16_to_be. cbn [app].
  change (B _ 4) with (len (arp_sender_hw a)). change (B _ 5) with (len (arp_sender_proto a)). reflexivity.
Qed.

(* wire_net dispatches on the ether type of the configured net layer *)
Lemma net_back e c p bs : cfg_wf c = true -> build e c p = BOk bs -> payload_admitted c (len p) = true ->
  forall pk src,
    wire_net bs pk (net_ether_type (c_net c)) src (off_net c) (len bs) = VOk (net_done c (len bs) pk) /\
    match c_net c with
    | NtArp _ => True
    | _ => wire_ip bs pk src (off_net c) (len bs) = VOk (net_done c (len bs) pk)
    end.
Proof.
  intros WF E PA pk src. destruct (c_net c) as [h x|h x|a] eqn:EN; cbn [net_ether_type]; unfold wire_net.
  - change (2048 =? 2054) with false. change (2048 =? 2048) with true. cbv iota.
    pose proof (net_back_ipv4 e c p bs h x WF E PA EN pk src) as NB.
    unfold net_done in *. rewrite EN in *. exact NB.
  - change (34525 =? 2054) with false. change (34525 =? 2048) with false. change (34525 =? 34525) with true. cbv iota.
    pose proof (net_back_ipv6 e c p bs h x WF E PA EN pk src) as NB.
    unfold net_done in *. rewrite EN in *. exact NB.
  - change (2054 =? 2054) with true. cbv iota. split; [|exact I].
    pose proof (net_back_arp e c p bs a WF E EN pk src) as NB.
    unfold net_done in *. rewrite EN in *. exact NB.
Qed.

Lemma net_done_expected c total lk xs :
  net_done c total (mkVPacket lk xs None None) =
  mkVPacket lk xs (exp_net_x c total)
    (match c_net c with NtArp _ => None | _ => if is_fragmented_x c then None else exp_transport c total end).
Proof.
  unfold net_done, tr_done. cbv zeta. cbn [v_link v_exts v_transport].
  destruct (c_net c); try reflexivity; destruct (is_fragmented_x c); try reflexivity;
    destruct (exp_transport c total); reflexivity.
Qed.

Lemma net_et_plain n : is_vlan (net_ether_type n) = false /\ net_ether_type n <> 35045 /\
  sll_nonstandard (net_ether_type n) = false.
Proof. destruct n; cbn [net_ether_type]; repeat split; try reflexivity; lia. Qed.

(* the link and VLAN layers are always read as configured: the decoder arrives at the net layer *)
Lemma link_back e c p bs : cfg_wf c = true -> build e c p = BOk bs ->
  wire_entry c bs =
    match c_link c with
    | LkNone => wire_ip bs (link_view c (len bs)) LsSlice (off_net c) (len bs)
    | _ => wire_net bs (link_view c (len bs)) (net_ether_type (c_net c)) LsSlice (off_net c) (len bs)
    end.
Proof.
  intros WF E. destruct (cfg_wf_inv c WF) as (WL & WV & WN & WT & WS).
  pose proof (build_size e c p bs WF E) as SZ.
  pose proof (next_protocol_fields e c p bs WF E) as (LKF & VLF & _).
  destruct (net_et_plain (c_net c)) as (NV & NM & NS).
  unfold wire_entry, link_view, exp_link, exp_exts, off_vlan, off_net in *.
  assert (FS : len bs = link_len c + vlan_len c + (net_len c + transport_len c + len p))
    by (rewrite SZ; unfold final_size; clear; lia).
  unfold link_len, vlan_len in *. unfold shape_ok in WS.
  destruct (c_link c) as [|s d|pt vl a] eqn:EL.
  - destruct (c_vlan c); try discriminate. reflexivity.
  - unfold wire_ethernet, n_bs. rewrite (ltb_false (len bs) 14) by lia.
    rewrite LKF. unfold link_announces.
    destruct (c_vlan c) as [|v|o i] eqn:EV.
    + rewrite (wire_ether_net bs 3 _ _ LsSlice 14 (len bs) NV NM). reflexivity.
    + rewrite (wire_ether_vlan bs 2 _ 33024 LsSlice 14 (len bs) eq_refl) by (clear - FS; lia).
      change (14 + 2) with 16 in *. rewrite VLF.
      rewrite (wire_ether_net bs 2 _ _ LsSlice (14 + 4) (len bs) NV NM). reflexivity.
    + destruct VLF as (VL1 & VL2).
      rewrite (wire_ether_vlan bs 2 _ 34984 LsSlice 14 (len bs) eq_refl) by (clear - FS; lia).
      change (14 + 2) with 16 in *. rewrite VL1.
      rewrite (wire_ether_vlan bs 1 _ 33024 LsSlice (14 + 4) (len bs) eq_refl) by (clear - FS; lia).
      change (14 + 4 + 2) with 20. change (14 + 6) with 20 in VL2. rewrite VL2.
      rewrite (wire_ether_net bs 1 _ _ LsSlice (14 + 4 + 4) (len bs) NV NM). reflexivity.
  - destruct LKF as (W0 & W2 & W14 & EV). rewrite EV in *.
    cbn [link_wf] in WL. bsplit WL.
    unfold wire_linux_sll, n_bs. rewrite (ltb_false (len bs) 16) by lia.
    rewrite W0, W2, W14.
    replace (7 <? pt) with false
      by (symmetry; apply N.ltb_ge; match goal with H : pt < 8 |- _ => clear - H; lia end).
    change (sll_hw_supported 1) with true. change (1 =? 1) with true. rewrite NS. cbn [negb andb].
    rewrite (wire_ether_net bs 3 _ _ LsSlice 16 (len bs) NV NM). reflexivity.
Qed.

Theorem parse_back e c p bs : cfg_wf c = true -> payload_admitted c (len p) = true ->
  build e c p = BOk bs -> wire_entry c bs = VOk (expected_x c (len p)).
Proof.
  intros WF PA E. destruct (cfg_wf_inv c WF) as (_ & _ & _ & _ & WS).
  rewrite (link_back e c p bs WF E).
  destruct (net_back e c p bs WF E PA (link_view c (len bs)) LsSlice) as (NB1 & NB2).
  assert (EX : net_done c (len bs) (link_view c (len bs)) = expected_x c (len p)).
  { unfold link_view. rewrite net_done_expected. unfold expected_x. cbv zeta.
    rewrite <- (build_size e c p bs WF E). reflexivity. }
  rewrite <- EX. unfold shape_ok in WS.
  destruct (c_link c); [|exact NB1..].
  (* without a link layer the net layer is an IP header *)
  destruct (c_net c); [exact NB2|exact NB2|].
  apply andb_true_iff in WS. destruct WS as [_ WS]. discriminate.
Qed.

(* without extension headers the view is the one of Builder/Spec.v *)
Lemma expected_x_no_exts c plen : no_exts c = true -> expected_x c plen = expected c plen.
Proof.
  unfold no_exts, expected_x, expected, exp_net_x, exp_net, is_fragmented_x, is_fragmented, first_ext_number,
    ext_layout, off_exts, ip_header_len. cbv zeta.
  destruct (c_net c) as [h x|h x|a]; intros NE; try reflexivity.
  - destruct (XM.auth4 x); [discriminate|reflexivity].
  - destruct x as [[hh|] [d|] [r|] [fr|] [a|]]; try discriminate. reflexivity.
Qed.

Corollary parse_back_no_exts e c p bs : cfg_wf c = true -> parse_pre c (len p) = true ->
  build e c p = BOk bs -> wire_entry c bs = VOk (expected c (len p)).
Proof.
  intros WF PP E. unfold parse_pre in PP. apply andb_true_iff in PP. destruct PP as [NE PA].
  rewrite <- (expected_x_no_exts c (len p) NE). apply (parse_back e c p bs WF PA E).
Qed.

(* the packet of a builder without link layer, handed to the ether-type entry point *)
Theorem parse_back_ether_type e c p bs : cfg_wf c = true -> payload_admitted c (len p) = true ->
  build e c p = BOk bs -> c_link c = LkNone ->
  let x := expected_x c (len p) in
  wire_ether_type bs (net_ether_type (c_net c))
  = VOk (mkVPacket (Some (VEtherPayload (mkVEp (net_ether_type (c_net c)) LsSlice (0, len bs))))
                   (v_exts x) (v_net x) (v_transport x)).
Proof.
  intros WF PA E EL. cbv zeta. destruct (cfg_wf_inv c WF) as (WL & WV & WN & WT & WS).
  pose proof (build_size e c p bs WF E) as SZ.
  pose proof (net_back e c p bs WF E PA) as NB.
  destruct (net_et_plain (c_net c)) as (NV & NM & NS).
  unfold shape_ok in WS. rewrite EL in WS.
  assert (EV : c_vlan c = VlNone) by (destruct (c_vlan c); [reflexivity|discriminate..]).
  unfold wire_ether_type, n_bs. rewrite (wire_ether_net bs 3 _ _ LsSlice 0 (len bs) NV NM).
  destruct (NB (mkVPacket (Some (VEtherPayload (mkVEp (net_ether_type (c_net c)) LsSlice (0, len bs)))) [] None None)
               LsSlice) as (NB1 & _).
  unfold off_net, link_len, vlan_len in NB1. rewrite EL, EV in NB1. change (0 + 0) with 0 in NB1.
  rewrite NB1. apply f_equal. rewrite net_done_expected.
  unfold expected_x. cbv zeta. cbn [v_exts v_net v_transport]. rewrite <- SZ.
  unfold exp_exts. rewrite EV. reflexivity.
Qed.
