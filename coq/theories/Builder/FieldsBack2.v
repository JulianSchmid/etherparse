(* Builder/FieldsBack2.v -- property C10, field values: the layers with sub-octet
   fields (802.1Q tag, IPv6, IPv4, TCP) -- the C03 field specification evaluated on the encoders. *)
From Coq Require Import ZArith Lia ZifyN ZifyBool List.
From EP Require Import Base.Bytes Checksum.Spec Checksum.Model Checksum.Proofs.
From EP Require Import Checksum.ProtoTypes Checksum.ProtoSpec.
From EP Require Import Roundtrip.Common Roundtrip.CommonProofs.
From EP Require Roundtrip.Spec Roundtrip.SpecLinkNet Roundtrip.Tcp Roundtrip.TcpProofs Roundtrip.Ipv4 Roundtrip.Ipv4Proofs.
From EP Require BitFields.Model BitFields.Spec BitFields.Fields BitFields.BitLemmas BitFields.Proofs BitFields.Proofs2.
From EP Require Import Parse.Types Parse.Slices Parse.Cursor Parse.View Parse.WireSpec.
From EP Require Parse.StrictProofs Parse.FieldsProofs Parse.Access.
From EP Require Import Builder.Model Builder.Spec Builder.Proofs Builder.ProofsCk Builder.SpecX Builder.ProofsTr.
From EP Require Import Parse.Fields.
From EP Require Import Builder.FieldsBack.
Import ListNotations.
Local Open Scope N_scope.

Local Notation bfield := BitFields.Spec.field.
Local Notation bits_of := BitFields.Spec.bits_of.
Definition vlan_cfgf (v : BitFields.Model.SingleVlanHeader) (et : N) : fl :=
  [(Fpcp, FvN (BitFields.Model.vlan_pcp v)); (Fdei, FvB (BitFields.Model.vlan_dei v));
   (Fvid, FvN (BitFields.Model.vlan_id v)); (Fether_type, FvN et)].

Lemma vlan_raw b0 b1 b2 b3 rest :
  vlan_spec (b0 :: b1 :: b2 :: b3 :: rest) 0 =
  [(Fpcp, FvN (bfield (bits_of [b0; b1]) 0 3)); (Fdei, FvB (bfield (bits_of [b0; b1]) 3 1 =? 1));
   (Fvid, FvN (bfield (bits_of [b0; b1]) 4 12)); (Fether_type, FvN (be16 b2 b3))].
Proof. reflexivity. Qed.

Lemma vlan_eval v et rest : vlan1_wf v = true -> et < 65536 ->
  vlan_spec (BitFields.Model.SingleVlanHeader_to_bytes (vlan_set_ether_type v et) ++ rest) 0 = vlan_cfgf v et.
Proof.
  intros Wv E. unfold vlan1_wf in Wv. apply andb_true_iff in Wv. destruct Wv as [P I].
  apply N.ltb_lt in P. apply N.ltb_lt in I.
  set (h := vlan_set_ether_type v et).
  assert (OK : BitFields.Fields.vlan_ok h).
  { unfold BitFields.Fields.vlan_ok, h, vlan_set_ether_type, BitFields.Model.VlanPcp_MAX_U8, BitFields.Model.VlanId_MAX_U16.
    cbn [BitFields.Model.vlan_pcp BitFields.Model.vlan_id BitFields.Model.vlan_ether_type]. lia. }
  pose proof (BitFields.Proofs.vlan_enc_layout h OK) as EL.
  assert (SH : exists b0 b1, BitFields.Model.SingleVlanHeader_to_bytes h =
                             [b0; b1; (et / 256) mod 256; et mod 256]).
  { eexists. eexists. reflexivity. }
  destruct SH as (b0 & b1 & SH). rewrite SH in *. cbn [app]. rewrite vlan_raw, (be16_u16 _ E).
  change [b0; b1; (et / 256) mod 256; et mod 256] with ([b0; b1] ++ [(et / 256) mod 256; et mod 256]) in EL.
  rewrite !(bfield_prefix [b0; b1] [(et / 256) mod 256; et mod 256]) by (cbn [length]; lia).
  rewrite EL. unfold BitFields.Fields.vlan_spec_layout, BitFields.Spec.vlan_layout, h, vlan_set_ether_type.
  cbn [BitFields.Model.vlan_pcp BitFields.Model.vlan_dei BitFields.Model.vlan_id BitFields.Model.vlan_ether_type].
  set (pcp := BitFields.Model.vlan_pcp v). set (dei := BitFields.Spec.b2n (BitFields.Model.vlan_dei v)).
  set (vid := BitFields.Model.vlan_id v). fold pcp in P. fold vid in I.
  change [BitFields.Spec.F 3 pcp; BitFields.Spec.F 1 dei; BitFields.Spec.F 12 vid; BitFields.Spec.F 16 et]
    with ([] ++ BitFields.Spec.F 3 pcp :: [BitFields.Spec.F 1 dei; BitFields.Spec.F 12 vid; BitFields.Spec.F 16 et]) at 1.
  rewrite (lfield [] 3 pcp _ 0) by (try reflexivity; change (2 ^ N.of_nat 3) with 8; exact P).
  change [BitFields.Spec.F 3 pcp; BitFields.Spec.F 1 dei; BitFields.Spec.F 12 vid; BitFields.Spec.F 16 et]
    with ([BitFields.Spec.F 3 pcp] ++ BitFields.Spec.F 1 dei :: [BitFields.Spec.F 12 vid; BitFields.Spec.F 16 et]) at 1.
  rewrite (lfield [BitFields.Spec.F 3 pcp] 1 dei _ 3)
    by (try reflexivity; unfold dei; destruct (BitFields.Model.vlan_dei v); cbv; reflexivity).
  change [BitFields.Spec.F 3 pcp; BitFields.Spec.F 1 dei; BitFields.Spec.F 12 vid; BitFields.Spec.F 16 et]
    with ([BitFields.Spec.F 3 pcp; BitFields.Spec.F 1 dei] ++ BitFields.Spec.F 12 vid :: [BitFields.Spec.F 16 et]).
  rewrite (lfield [BitFields.Spec.F 3 pcp; BitFields.Spec.F 1 dei] 12 vid _ 4)
    by (try reflexivity; change (2 ^ N.of_nat 12) with 4096; exact I).
  unfold dei, pcp, vid.
  unfold vlan_cfgf. destruct (BitFields.Model.vlan_dei v); reflexivity.
Qed.

Definition ipv6_cfg (h : BitFields.Model.Ipv6Header) : fl :=
  [(Fversion, FvN 6); (Ftraffic_class, FvN (BitFields.Model.v6_traffic_class h));
   (Fflow_label, FvN (BitFields.Model.v6_flow_label h)); (Fpayload_len, FvN (BitFields.Model.v6_payload_length h));
   (Fnext_header, FvN (BitFields.Model.v6_next_header h)); (Fhop_limit, FvN (BitFields.Model.v6_hop_limit h));
   (Fsrc, FvBytes (BitFields.Model.v6_source h)); (Fdst, FvBytes (BitFields.Model.v6_destination h))].

Lemma ipv6_raw b0 b1 b2 b3 b4 b5 b6 b7 s0 s1 s2 s3 s4 s5 s6 s7 s8 s9 s10 s11 s12 s13 s14 s15
      d0 d1 d2 d3 d4 d5 d6 d7 d8 d9 d10 d11 d12 d13 d14 d15 rest :
  ipv6_spec (b0 :: b1 :: b2 :: b3 :: b4 :: b5 :: b6 :: b7 ::
             s0 :: s1 :: s2 :: s3 :: s4 :: s5 :: s6 :: s7 :: s8 :: s9 :: s10 :: s11 :: s12 :: s13 :: s14 :: s15 ::
             d0 :: d1 :: d2 :: d3 :: d4 :: d5 :: d6 :: d7 :: d8 :: d9 :: d10 :: d11 :: d12 :: d13 :: d14 :: d15 :: rest) 0 =
  [(Fversion, FvN (bfield (bits_of [b0]) 0 4)); (Ftraffic_class, FvN (bfield (bits_of [b0; b1]) 4 8));
   (Fflow_label, FvN (bfield (bits_of [b0; b1; b2; b3]) 12 20)); (Fpayload_len, FvN (be16 b4 b5));
   (Fnext_header, FvN b6); (Fhop_limit, FvN b7);
   (Fsrc, FvBytes [s0; s1; s2; s3; s4; s5; s6; s7; s8; s9; s10; s11; s12; s13; s14; s15]);
   (Fdst, FvBytes [d0; d1; d2; d3; d4; d5; d6; d7; d8; d9; d10; d11; d12; d13; d14; d15])].
Proof. reflexivity. Qed.

Lemma ipv6_eval h rest : ip6_wf h = true -> BitFields.Model.v6_payload_length h < 65536 ->
  BitFields.Model.v6_next_header h < 256 ->
  ipv6_spec (BitFields.Model.Ipv6Header_to_bytes h ++ rest) 0 = ipv6_cfg h.
Proof.
  intros WH PL NH. unfold ip6_wf in WH.
  repeat (apply andb_true_iff in WH; destruct WH as [WH ?]).
  repeat match goal with
         | X : (_ <? _) = true |- _ => apply N.ltb_lt in X
         | X : (_ =? _) = true |- _ => apply N.eqb_eq in X
         | X : bytes_okb _ = true |- _ => apply bytes_okb_spec in X
         end.
  assert (OK : BitFields.Fields.ipv6_ok h).
  { unfold BitFields.Fields.ipv6_ok, BitFields.Model.Ipv6FlowLabel_MAX_U32. repeat split; try assumption; lia. }
  pose proof (BitFields.Proofs.ipv6_enc_layout h OK) as EL.
  destruct h as [tc fl pl nh hop src dst].
  cbn [BitFields.Model.v6_traffic_class BitFields.Model.v6_flow_label BitFields.Model.v6_payload_length
       BitFields.Model.v6_next_header BitFields.Model.v6_hop_limit BitFields.Model.v6_source
       BitFields.Model.v6_destination] in *.
  match goal with L : len src = 16 |- _ => expl src L end.
  match goal with L : len dst = 16 |- _ => expl dst L end.
  unfold BitFields.Fields.ipv6_spec_layout, BitFields.Spec.ipv6_layout in EL.
  cbn [BitFields.Model.v6_traffic_class BitFields.Model.v6_flow_label BitFields.Model.v6_payload_length
       BitFields.Model.v6_next_header BitFields.Model.v6_hop_limit BitFields.Model.v6_source
       BitFields.Model.v6_destination] in EL.
  assert (SH : exists b0 b1 b2 b3 tl, BitFields.Model.Ipv6Header_to_bytes
             (BitFields.Model.mkIpv6 tc fl pl nh hop
                [x; x0; x1; x2; x3; x4; x5; x6; x7; x8; x9; x10; x11; x12; x13; x14]
                [x15; x16; x17; x18; x19; x20; x21; x22; x23; x24; x25; x26; x27; x28; x29; x30]) =
             b0 :: b1 :: b2 :: b3 :: tl /\
             tl = (pl / 256) mod 256 :: pl mod 256 :: nh :: hop ::
                [x; x0; x1; x2; x3; x4; x5; x6; x7; x8; x9; x10; x11; x12; x13; x14] ++
                [x15; x16; x17; x18; x19; x20; x21; x22; x23; x24; x25; x26; x27; x28; x29; x30]).
  { do 5 eexists. split; reflexivity. }
  destruct SH as (b0 & b1 & b2 & b3 & tl & SH & TL). rewrite SH in *. subst tl. cbn [app].
  rewrite ipv6_raw, (be16_u16 _ PL).
  set (tl := (pl / 256) mod 256 :: _) in EL.
  rewrite (bfield_prefix [b0] (b1 :: b2 :: b3 :: tl)) by (cbn [length]; lia).
  rewrite (bfield_prefix [b0; b1] (b2 :: b3 :: tl)) by (cbn [length]; lia).
  rewrite (bfield_prefix [b0; b1; b2; b3] tl) by (cbn [length]; lia).
  cbn [app]. rewrite EL.
  set (oc := BitFields.Spec.octets _).
  change ([BitFields.Spec.F 4 6; BitFields.Spec.F 8 tc; BitFields.Spec.F 20 fl; BitFields.Spec.F 16 pl;
           BitFields.Spec.F 8 nh; BitFields.Spec.F 8 hop] ++ oc)
    with ([] ++ BitFields.Spec.F 4 6 :: ([BitFields.Spec.F 8 tc; BitFields.Spec.F 20 fl; BitFields.Spec.F 16 pl;
           BitFields.Spec.F 8 nh; BitFields.Spec.F 8 hop] ++ oc)) at 1.
  rewrite (lfield [] 4 6 _ 0) by (try reflexivity; cbv; reflexivity).
  change ([BitFields.Spec.F 4 6; BitFields.Spec.F 8 tc; BitFields.Spec.F 20 fl; BitFields.Spec.F 16 pl;
           BitFields.Spec.F 8 nh; BitFields.Spec.F 8 hop] ++ oc)
    with ([BitFields.Spec.F 4 6] ++ BitFields.Spec.F 8 tc :: ([BitFields.Spec.F 20 fl; BitFields.Spec.F 16 pl;
           BitFields.Spec.F 8 nh; BitFields.Spec.F 8 hop] ++ oc)) at 1.
  rewrite (lfield [BitFields.Spec.F 4 6] 8 tc _ 4) by (try reflexivity; change (2 ^ N.of_nat 8) with 256; assumption).
  change ([BitFields.Spec.F 4 6; BitFields.Spec.F 8 tc; BitFields.Spec.F 20 fl; BitFields.Spec.F 16 pl;
           BitFields.Spec.F 8 nh; BitFields.Spec.F 8 hop] ++ oc)
    with ([BitFields.Spec.F 4 6; BitFields.Spec.F 8 tc] ++ BitFields.Spec.F 20 fl :: ([BitFields.Spec.F 16 pl;
           BitFields.Spec.F 8 nh; BitFields.Spec.F 8 hop] ++ oc)).
  rewrite (lfield [BitFields.Spec.F 4 6; BitFields.Spec.F 8 tc] 20 fl _ 12)
    by (try reflexivity; change (2 ^ N.of_nat 20) with 1048576; assumption).
  reflexivity.
Qed.

Lemma bytes_n_pre (pre tl : bytes) p n : p = len pre -> bytes_n (pre ++ tl) p n = bytes_n tl 0 n.
Proof.
  intros ->. unfold bytes_n. rewrite <- (N.add_0_r (len pre)), <- bytes_at_drop.
  rewrite drop_app_len by reflexivity. reflexivity.
Qed.
Lemma bytes_n_front (o rest : bytes) n : n = len o -> bytes_n (o ++ rest) 0 n = o.
Proof. intros ->. apply (bytes_n_mid [] o rest 0 (len o)); reflexivity. Qed.

Definition ipv4_cfg (h : Ipv4.Ipv4Header) : fl :=
  [(Fversion, FvN 4); (Fihl, FvN (5 + Ipv4.i4o_len (Ipv4.i4_options h) / 4));
   (Fdscp, FvN (Ipv4.i4_dscp h)); (Fecn, FvN (Ipv4.i4_ecn h)); (Ftotal_len, FvN (Ipv4.i4_total_len h));
   (Fident, FvN (Ipv4.i4_identification h)); (Fdf, FvB (Ipv4.i4_dont_fragment h));
   (Fmf, FvB (Ipv4.i4_more_fragments h)); (Ffrag_off, FvN (Ipv4.i4_fragment_offset h));
   (Fttl, FvN (Ipv4.i4_time_to_live h)); (Fprotocol, FvN (Ipv4.i4_protocol h));
   (Fchecksum, FvN (Ipv4.i4_header_checksum h));
   (Fsrc, FvN (be_num (Ipv4.i4_source h))); (Fdst, FvN (be_num (Ipv4.i4_destination h)));
   (Foptions, FvBytes (take (Ipv4.i4o_len (Ipv4.i4_options h)) (Ipv4.i4o_buf (Ipv4.i4_options h))))].

Lemma ipv4_raw b0 b1 b2 b3 b4 b5 b6 b7 b8 b9 b10 b11 b12 b13 b14 b15 b16 b17 b18 b19 tl hl :
  ipv4_spec (b0 :: b1 :: b2 :: b3 :: b4 :: b5 :: b6 :: b7 :: b8 :: b9 :: b10 :: b11 :: b12 :: b13 :: b14 :: b15
             :: b16 :: b17 :: b18 :: b19 :: tl) 0 hl =
  [(Fversion, FvN (bfield (bits_of [b0]) 0 4)); (Fihl, FvN (bfield (bits_of [b0]) 4 4));
   (Fdscp, FvN (bfield (bits_of [b1]) 0 6)); (Fecn, FvN (bfield (bits_of [b1]) 6 2));
   (Ftotal_len, FvN (be16 b2 b3)); (Fident, FvN (be16 b4 b5));
   (Fdf, FvB (bfield (bits_of [b6; b7]) 1 1 =? 1)); (Fmf, FvB (bfield (bits_of [b6; b7]) 2 1 =? 1));
   (Ffrag_off, FvN (bfield (bits_of [b6; b7]) 3 13));
   (Fttl, FvN b8); (Fprotocol, FvN b9); (Fchecksum, FvN (be16 b10 b11));
   (Fsrc, FvN (be_num [b12; b13; b14; b15])); (Fdst, FvN (be_num [b16; b17; b18; b19]));
   (Foptions, FvBytes (bytes_n tl 0 (hl - 20)))].
Proof.
  rewrite <- (bytes_n_pre [b0; b1; b2; b3; b4; b5; b6; b7; b8; b9; b10; b11; b12; b13; b14; b15; b16; b17; b18; b19]
                tl 20 (hl - 20) eq_refl).
  reflexivity.
Qed.

Lemma ipv4_eval h hb rest : Ipv4.wf_ip4 h = true -> Ipv4.ip4_to_bytes h = Some hb ->
  ipv4_spec (hb ++ rest) 0 (Ipv4.ip4_header_len h) = ipv4_cfg h.
Proof.
  intros W EB.
  destruct (Ipv4Proofs.wf_ip4_facts h W) as ((R1 & R2 & R3 & R4) & (R5 & R6 & R7 & R8) & _ & WO).
  destruct (Ipv4Proofs.wf_i4o_facts _ WO) as (OL & OM & BL & BO).
  destruct (Ipv4Proofs.ip4_to_bytes_wf h W) as (f & EF & ET). rewrite ET in EB. apply Some_inj in EB. subst hb.
  destruct (Ipv4Proofs.fixed_wf h (Ipv4.i4_header_checksum h) W)
    as (f' & EF' & _ & s0 & s1 & s2 & s3 & d0 & d1 & d2 & d3 & ES & ED & FX).
  rewrite EF in EF'. apply Some_inj in EF'. subst f'. rewrite FX. rewrite <- app_assoc. cbn [app].
  rewrite ipv4_raw. unfold Ipv4.ip4_header_len.
  replace (20 + Ipv4.i4o_len (Ipv4.i4_options h) - 20) with (Ipv4.i4o_len (Ipv4.i4_options h)) by lia.
  rewrite bytes_n_front by (symmetry; apply Ipv4Proofs.len_take_i4o; exact WO).
  rewrite (be16_u16 _ R3), (be16_u16 _ R4), (be16_u16 _ R8).
  (* byte 0 *)
  destruct (Ipv4Proofs.b0_dec (Ipv4.i4o_len (Ipv4.i4_options h)) OL OM) as (A1 & A2 & _ & A4 & _).
  rewrite <- Ipv4Proofs.byte0_is in A1, A2, A4. cbv zeta in A1, A2, A4. unfold shr, band in A1, A2.
  destruct (Parse.FieldsProofs.byte_facts _ A4) as (E1 & E2 & _).
  rewrite <- E1, <- E2, A1.
  assert (IHL : N.land (Ipv4.ip4_byte0 h) 15 = 5 + Ipv4.i4o_len (Ipv4.i4_options h) / 4).
  { clear - A2 OM OL. revert A2. generalize (N.land (Ipv4.ip4_byte0 h) 15). intros q A2.
    set (ol := Ipv4.i4o_len (Ipv4.i4_options h)) in *. dmlia. }
  rewrite IHL.
  (* byte 1 *)
  destruct (Ipv4Proofs.b1_dec (Ipv4.i4_dscp h) (Ipv4.i4_ecn h) R1 R2) as (B1 & B2 & B3 & _).
  rewrite <- Ipv4Proofs.byte1_is in B1, B2, B3. cbv zeta in B1, B2, B3. unfold shr, band in B1, B2.
  destruct (BitFields.Proofs2.raw_fields_ipv4_1 _ B3) as (E3 & E4).
  rewrite <- E3, <- E4, B1, B2.
  (* bytes 6, 7 *)
  pose proof (Ipv4Proofs.frag_hi _ R5) as HI.
  destruct (Ipv4Proofs.b6_dec (Ipv4.i4_dont_fragment h) (Ipv4.i4_more_fragments h) _ HI) as (C1 & C2 & C3 & C4 & _).
  rewrite <- Ipv4Proofs.byte6_is in C1, C2, C3, C4. cbv zeta in C1, C2, C3, C4. unfold band in C1, C2, C3.
  assert (B7 : Ipv4.ip4_byte7 h < 256) by (unfold Ipv4.ip4_byte7; apply N.mod_lt; lia).
  destruct (BitFields.Proofs2.raw_fields_ipv4_67 _ _ C4 B7) as (E5 & E6 & E7).
  rewrite (Parse.FieldsProofs.flag_of_b2n _ _ E5), (Parse.FieldsProofs.flag_of_b2n _ _ E6), <- E7.
  change (BitFields.Model.nonzero (N.land (Ipv4.ip4_byte6 h) 64)) with (nz (N.land (Ipv4.ip4_byte6 h) 64)).
  change (BitFields.Model.nonzero (N.land (Ipv4.ip4_byte6 h) 32)) with (nz (N.land (Ipv4.ip4_byte6 h) 32)).
  rewrite C1, C2, C3. unfold Ipv4.ip4_byte7.
  rewrite (be16_u16 (Ipv4.i4_fragment_offset h)) by lia.
  unfold ipv4_cfg. rewrite ES, ED. reflexivity.
Qed.

Definition tcp_cfg (t : Tcp.TcpHeader) (ck : N) : fl :=
  [(Fsrc_port, FvN (Tcp.source_port t)); (Fdst_port, FvN (Tcp.destination_port t));
   (Fseq, FvN (Tcp.sequence_number t)); (Fack_nr, FvN (Tcp.acknowledgment_number t));
   (Fdata_offset, FvN (5 + Tcp.o_len (Tcp.options t) / 4));
   (Fns, FvB (Tcp.ns t)); (Fcwr, FvB (Tcp.cwr t)); (Fece, FvB (Tcp.ece t)); (Furg, FvB (Tcp.urg t));
   (Fack, FvB (Tcp.ack t)); (Fpsh, FvB (Tcp.psh t)); (Frst, FvB (Tcp.rst t)); (Fsyn, FvB (Tcp.syn t));
   (Ffin, FvB (Tcp.fin t)); (Fwindow, FvN (Tcp.window_size t)); (Fchecksum, FvN ck);
   (Furgent, FvN (Tcp.urgent_pointer t));
   (Foptions, FvBytes (take (Tcp.o_len (Tcp.options t)) (Tcp.o_buf (Tcp.options t))))].

Lemma tcp_raw b0 b1 b2 b3 b4 b5 b6 b7 b8 b9 b10 b11 b12 b13 b14 b15 b16 b17 b18 b19 tl hl :
  tcp_spec (b0 :: b1 :: b2 :: b3 :: b4 :: b5 :: b6 :: b7 :: b8 :: b9 :: b10 :: b11 :: b12 :: b13 :: b14 :: b15
            :: b16 :: b17 :: b18 :: b19 :: tl) 0 hl =
  [(Fsrc_port, FvN (be16 b0 b1)); (Fdst_port, FvN (be16 b2 b3)); (Fseq, FvN (be_num [b4; b5; b6; b7]));
   (Fack_nr, FvN (be_num [b8; b9; b10; b11])); (Fdata_offset, FvN (bfield (bits_of [b12]) 0 4));
   (Fns, FvB (bfield (bits_of [b12]) 7 1 =? 1)); (Fcwr, FvB (bfield (bits_of [b13]) 0 1 =? 1));
   (Fece, FvB (bfield (bits_of [b13]) 1 1 =? 1)); (Furg, FvB (bfield (bits_of [b13]) 2 1 =? 1));
   (Fack, FvB (bfield (bits_of [b13]) 3 1 =? 1)); (Fpsh, FvB (bfield (bits_of [b13]) 4 1 =? 1));
   (Frst, FvB (bfield (bits_of [b13]) 5 1 =? 1)); (Fsyn, FvB (bfield (bits_of [b13]) 6 1 =? 1));
   (Ffin, FvB (bfield (bits_of [b13]) 7 1 =? 1));
   (Fwindow, FvN (be16 b14 b15)); (Fchecksum, FvN (be16 b16 b17)); (Furgent, FvN (be16 b18 b19));
   (Foptions, FvBytes (bytes_n tl 0 (hl - 20)))].
Proof.
  rewrite <- (bytes_n_pre [b0; b1; b2; b3; b4; b5; b6; b7; b8; b9; b10; b11; b12; b13; b14; b15; b16; b17; b18; b19]
                tl 20 (hl - 20) eq_refl).
  reflexivity.
Qed.

Lemma b12_facts d ns : d < 16 ->
  bfield (bits_of [d * 16 + bit ns]) 0 4 = d /\ (bfield (bits_of [d * 16 + bit ns]) 7 1 =? 1) = ns.
Proof.
  intros H.
  assert (C : d = 0 \/ d = 1 \/ d = 2 \/ d = 3 \/ d = 4 \/ d = 5 \/ d = 6 \/ d = 7 \/ d = 8 \/ d = 9 \/ d = 10
              \/ d = 11 \/ d = 12 \/ d = 13 \/ d = 14 \/ d = 15) by lia.
  repeat (destruct C as [->|C]); try subst d; destruct ns; vm_compute; split; reflexivity.
Qed.

Lemma b13_facts cwr ece urg ack psh rst syn fin :
  let b := bit cwr * 128 + bit ece * 64 + bit urg * 32 + bit ack * 16 + bit psh * 8 + bit rst * 4 + bit syn * 2 + bit fin in
  (bfield (bits_of [b]) 0 1 =? 1) = cwr /\ (bfield (bits_of [b]) 1 1 =? 1) = ece /\
  (bfield (bits_of [b]) 2 1 =? 1) = urg /\ (bfield (bits_of [b]) 3 1 =? 1) = ack /\
  (bfield (bits_of [b]) 4 1 =? 1) = psh /\ (bfield (bits_of [b]) 5 1 =? 1) = rst /\
  (bfield (bits_of [b]) 6 1 =? 1) = syn /\ (bfield (bits_of [b]) 7 1 =? 1) = fin.
Proof. destruct cwr, ece, urg, ack, psh, rst, syn, fin; vm_compute; repeat split; reflexivity. Qed.

Lemma be_num_u32 v : v < 4294967296 -> be_num (to_be32 v) = v.
Proof.
  intros H. rewrite <- u32_digits. unfold u32_to_be. rewrite <- Parse.FieldsProofs.be32_num.
  apply u32_be_roundtrip. exact H.
Qed.

Lemma tcp_eval t ck rest : Tcp.wf_tcp t = true -> ck < 65536 ->
  tcp_spec (tcp_wire (tcp_hdr_of t) ck ++ rest) 0 (Tcp.header_len t) = tcp_cfg t ck.
Proof.
  intros W C. destruct (TcpProofs.wf_tcp_facts t W) as (H1 & H2 & H3 & H4 & H5 & H6 & H7 & WO).
  destruct (TcpProofs.opt_wf_facts _ WO) as (OL & OM & BL & BO).
  pose proof (TcpProofs.len_take_opts t W) as LO.
  unfold tcp_wire, tcp_data_offset, tcp_hdr_of.
  cbn [t_sport t_dport t_seq t_ack_no t_ns t_fin t_syn t_rst t_psh t_ack t_urg t_ece t_cwr t_window t_urgent t_options].
  rewrite LO. set (opts := take (Tcp.o_len (Tcp.options t)) (Tcp.o_buf (Tcp.options t))) in *.
  pose proof (be_num_u32 _ H3) as S1. pose proof (be_num_u32 _ H4) as S2.
  unfold w16, w32, to_be16, to_be32 in *. rewrite <- !app_assoc. cbn [app].
  rewrite tcp_raw. unfold Tcp.header_len.
  replace (20 + Tcp.o_len (Tcp.options t) - 20) with (Tcp.o_len (Tcp.options t)) by lia.
  rewrite bytes_n_front by (symmetry; exact LO).
  rewrite (be16_u16 _ H1), (be16_u16 _ H2), (be16_u16 _ H5), (be16_u16 _ H7), (be16_u16 _ C), S1, S2.
  assert (D : 5 + Tcp.o_len (Tcp.options t) / 4 < 16) by (clear - OL; dmlia).
  destruct (b12_facts _ (Tcp.ns t) D) as (F1 & F2). rewrite F1, F2.
  pose proof (b13_facts (Tcp.cwr t) (Tcp.ece t) (Tcp.urg t) (Tcp.ack t) (Tcp.psh t) (Tcp.rst t) (Tcp.syn t) (Tcp.fin t)) as F.
  cbv zeta in F. destruct F as (G0 & G1 & G2 & G3 & G4 & G5 & G6 & G7).
  rewrite G0, G1, G2, G3, G4, G5, G6, G7. reflexivity.
Qed.
