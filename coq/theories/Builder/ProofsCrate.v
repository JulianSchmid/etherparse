(* Builder/ProofsCrate.v -- property C10:
   (1) every byte of a successful build is a byte (< 256) when the payload is
       (`build_bytes_ok`; the configuration side is already part of cfg_wf: addresses,
       option / ICV buffers are bytes_okb there);
   (2) composition with the C03 refinement theorems (Parse/StrictProofs.v: the MODEL OF THE
       CRATE'S SLICER SlicedPacket::from_ethernet / from_linux_sll / from_ip / from_ether_type
       agrees with the wire reference decoder on every byte string of bytes): the crate-side
       slicer model returns Ok with exactly the view `expected_x` on the built bytes
       (`crate_parse_back`, `crate_parse_back_ether_type`);
   (3) the ICMP value theorems of ProofsEx.v restated with the hypothesis that cfg_wf does
       not already give made explicit: only a raw Unknown{type, code} naming a typed kind is
       excluded (`icmp4_value_back_cfg`, `icmp6_value_back_cfg`, `icmp*_wf_gap`). *)
From EP Require Import Base.Bytes Checksum.Spec Checksum.Model Checksum.Proofs.
From EP Require Import Checksum.ProtoTypes Checksum.ProtoSpec.
From EP Require Import Roundtrip.Common Roundtrip.CommonProofs.
From EP Require Roundtrip.LinkNetLemmas.
From EP Require Roundtrip.Spec Roundtrip.SpecLinkNet Roundtrip.Tcp Roundtrip.TcpProofs Roundtrip.Ipv4 Roundtrip.Ipv4Proofs.
From EP Require Roundtrip.Vlan Roundtrip.VlanProofs Roundtrip.Ipv6 Roundtrip.Ipv6Proofs.
From EP Require CtlMsg.Spec CtlMsg.Model Roundtrip.Icmp4 Roundtrip.Icmp6.
From EP Require ExtChain.Spec ExtChain.Model ExtChain.View ExtChain.Proofs BitFields.Model.
From EP Require Import Parse.Types Parse.Slices Parse.Cursor Parse.View Parse.WireSpec.
From EP Require Parse.StrictProofs.
From EP Require Import Builder.Model Builder.Spec Builder.Proofs Builder.ProofsCk Builder.SpecX Builder.ProofsTr
  Builder.ProofsNx Builder.ProofsPb Builder.ProofsEx.
From Coq Require Import ZArith Lia ZifyN ZifyBool.
Local Open Scope N_scope.

Lemma ok1 b : b < 256 -> bytes_ok [b].
Proof. intros H. apply bytes_ok_explicit_cons; [exact H|apply bytes_ok_nil]. Qed.

Lemma bytes_ok_app2 a b : bytes_ok a -> bytes_ok b -> bytes_ok (a ++ b).
Proof. intros A B'. apply bytes_ok_app. split; assumption. Qed.

Lemma bytes_ok_field n v : bytes_ok (Roundtrip.Spec.field n v).
Proof. apply bytes_ok_to_be. Qed.

Lemma bytes_ok_w16 v : bytes_ok (w16 v).
Proof. apply bytes_ok_u16_to_be. Qed.
Lemma bytes_ok_w32 v : bytes_ok (w32 v).
Proof.
  unfold w32, to_be32.
  repeat (apply bytes_ok_explicit_cons; [apply N.mod_lt; lia|]). apply bytes_ok_nil.
Qed.

Ltac okb :=
  repeat first
    [ apply bytes_ok_nil
    | apply bytes_ok_field | apply bytes_ok_w16 | apply bytes_ok_w32
    | apply bytes_ok_u16_to_be | apply bytes_ok_u32_to_be
    | assumption
    | apply bytes_ok_app2
    | apply bytes_ok_explicit_cons ].

Lemma link_bytes_ok c : link_wf (c_link c) = true -> bytes_ok (link_bytes c).
Proof.
  unfold link_bytes. destruct (c_link c) as [|s d|pt vl a]; cbn [link_wf]; intros W.
  - apply bytes_ok_nil.
  - bsplit W. unfold eth_to_bytes.
    repeat match goal with H : bytes_okb _ = true |- _ => apply bytes_okb_spec in H end. okb.
  - bsplit W. unfold sll_to_bytes.
    repeat match goal with H : bytes_okb _ = true |- _ => apply bytes_okb_spec in H end. okb.
Qed.

(* the C15 encoder of a VLAN tag is the C08 encoder of the same header *)
Definition vl_of (v : BitFields.Model.SingleVlanHeader) : Vlan.SingleVlanHeader :=
  {| Vlan.vl_pcp := BitFields.Model.vlan_pcp v;
     Vlan.vl_drop_eligible_indicator := BitFields.Model.vlan_dei v;
     Vlan.vl_vlan_id := BitFields.Model.vlan_id v;
     Vlan.vl_ether_type := BitFields.Model.vlan_ether_type v |}.

Lemma vlan_c15_is_c08 v : BitFields.Model.SingleVlanHeader_to_bytes v = Vlan.vl_to_bytes (vl_of v).
Proof. reflexivity. Qed.

Lemma vl_of_wf v et : vlan1_wf v = true -> et < 65536 -> Vlan.wf_vl (vl_of (vlan_set_ether_type v et)) = true.
Proof.
  unfold vlan1_wf, Vlan.wf_vl, vl_of, vlan_set_ether_type. cbn.
  intros W E. apply N.ltb_lt in E. rewrite E. rewrite andb_true_r. exact W.
Qed.

Lemma vlan1_bytes_ok v et : vlan1_wf v = true -> et < 65536 ->
  bytes_ok (BitFields.Model.SingleVlanHeader_to_bytes (vlan_set_ether_type v et)).
Proof.
  intros W E. rewrite vlan_c15_is_c08, (VlanProofs.vl_spec _ (vl_of_wf v et W E)).
  unfold Roundtrip.SpecLinkNet.vlan_layout. okb.
Qed.

Lemma vlan_bytes_ok c : vlan_wf (c_vlan c) = true -> bytes_ok (vlan_bytes c).
Proof.
  unfold vlan_bytes. pose proof (net_et_lt (c_net c)) as NE.
  destruct (c_vlan c) as [|v|o i]; cbn [vlan_wf]; intros W.
  - apply bytes_ok_nil.
  - apply vlan1_bytes_ok; assumption.
  - apply andb_true_iff in W. destruct W as [W1 W2].
    apply bytes_ok_app2; apply vlan1_bytes_ok; try assumption; lia.
Qed.

Lemma arp_bytes_ok a : arp_wf a = true -> bytes_ok (arp_to_bytes a).
Proof.
  unfold arp_wf, arp_to_bytes. intros W. bsplit W.
  repeat match goal with H : bytes_okb _ = true |- _ => apply bytes_okb_spec in H end. okb.
Qed.

Lemma ip4_bytes_ok h hb : Ipv4.wf_ip4 h = true -> Ipv4.ip4_to_bytes h = Some hb -> bytes_ok hb.
Proof.
  intros W E. rewrite (Ipv4Proofs.ip4_spec h W) in E. apply Some_inj in E. subst hb.
  destruct (Ipv4Proofs.wf_ip4_facts h W) as ((R1 & R2 & R3 & R4) & (R5 & R6 & R7 & R8) & (LS & OS & LD & OD) & WO).
  destruct (Ipv4Proofs.wf_i4o_facts _ WO) as (OL & OM & BL & BO).
  pose proof (Ipv4Proofs.len_take_i4o _ WO) as LT.
  assert (BT : bytes_ok (take (Ipv4.i4o_len (Ipv4.i4_options h)) (Ipv4.i4o_buf (Ipv4.i4_options h))))
    by (apply bytes_ok_take; exact BO).
  unfold Roundtrip.Spec.ipv4_layout. rewrite LT.
  assert (Q : Ipv4.i4o_len (Ipv4.i4_options h) / 4 <= 10) by (apply N.div_le_upper_bound; lia).
  okb; lia.
Qed.

Definition ip6_of (h : BitFields.Model.Ipv6Header) : Ipv6.Ipv6Header :=
  {| Ipv6.i6_traffic_class := BitFields.Model.v6_traffic_class h;
     Ipv6.i6_flow_label := BitFields.Model.v6_flow_label h;
     Ipv6.i6_payload_length := BitFields.Model.v6_payload_length h;
     Ipv6.i6_next_header := BitFields.Model.v6_next_header h;
     Ipv6.i6_hop_limit := BitFields.Model.v6_hop_limit h;
     Ipv6.i6_source := BitFields.Model.v6_source h;
     Ipv6.i6_destination := BitFields.Model.v6_destination h |}.

Lemma ip6_c15_is_c08 h : BitFields.Model.Ipv6Header_to_bytes h = Ipv6.ip6_to_bytes (ip6_of h).
Proof.
  unfold BitFields.Model.Ipv6Header_to_bytes, Ipv6.ip6_to_bytes, u32_to_be, u16_to_be, ip6_of.
  cbn [Ipv6.i6_traffic_class Ipv6.i6_flow_label Ipv6.i6_payload_length Ipv6.i6_next_header Ipv6.i6_hop_limit
       Ipv6.i6_source Ipv6.i6_destination app].
  unfold BitFields.Model.be32_1, BitFields.Model.be32_2, BitFields.Model.be32_3, BitFields.Model.be16_0,
    BitFields.Model.be16_1, Ipv6.ip6_byte0, Ipv6.ip6_byte1.
  rewrite (N.div_div _ 256 256) by lia. reflexivity.
Qed.

Lemma ip6_of_wf h : ip6_wf h = true -> BitFields.Model.v6_payload_length h < 65536 ->
  BitFields.Model.v6_next_header h < 256 -> Ipv6.wf_ip6 (ip6_of h) = true.
Proof.
  unfold ip6_wf, Ipv6.wf_ip6, ip6_of. cbn. intros W P Nh. apply N.ltb_lt in P, Nh. rewrite P, Nh.
  rewrite !andb_true_iff in W. rewrite !andb_true_iff. intuition.
Qed.

Lemma ip6_bytes_ok h : ip6_wf h = true -> BitFields.Model.v6_payload_length h < 65536 ->
  BitFields.Model.v6_next_header h < 256 -> bytes_ok (BitFields.Model.Ipv6Header_to_bytes h).
Proof.
  intros W P Nh. pose proof (ip6_of_wf h W P Nh) as WF.
  rewrite ip6_c15_is_c08, (Ipv6Proofs.ip6_spec _ WF).
  destruct (Ipv6Proofs.ip6_wf_facts _ WF) as (R1 & R2 & R3 & R4 & R5 & LS & BS & LD & BD).
  unfold Roundtrip.SpecLinkNet.ipv6_layout. okb.
Qed.

Lemma ip4_bytes_ok_of (a : ip4) : ip4_ok a -> bytes_ok (ip4_bytes a).
Proof. intros H. exact H. Qed.

Lemma th_wire_bytes_ok th ck : transport_ok th -> bytes_ok (th_wire th ck).
Proof.
  destruct th as [h|h|t|t]; cbn [transport_ok th_wire].
  - intros _. unfold udp_wire. okb.
  - intros (A & B' & C & D & E & F & G & H & I').
    unfold tcp_wire, tcp_data_offset.
    assert (Q : len (t_options h) / 4 <= 10) by (apply N.div_le_upper_bound; lia).
    assert (BB : forall b, bit b <= 1) by (intros []; cbn; lia).
    pose proof (BB (t_ns h)). pose proof (BB (t_cwr h)). pose proof (BB (t_ece h)). pose proof (BB (t_urg h)).
    pose proof (BB (t_ack h)). pose proof (BB (t_psh h)). pose proof (BB (t_rst h)). pose proof (BB (t_syn h)).
    pose proof (BB (t_fin h)).
    okb; lia.
  - destruct t; cbn [icmp4_ok icmp4_wire]; intros K; okb; try lia; try tauto.
  - destruct t; cbn [icmp6_ok icmp6_wire]; intros K; okb; try lia; try tauto.
    + destruct managed, other; cbn; lia.
    + destruct router, solicited, override; cbn; lia.
Qed.

Lemma tr4_bytes_ok e s d t ul p tb : len s = 4 -> len d = 4 -> tr_wf t = true -> ul < 65536 ->
  tr_ipv4 e s d t ul p = TOk tb -> bytes_ok tb.
Proof.
  intros LS LD W UL E.
  destruct (LinkNetLemmas.len4_explicit s LS) as (s0 & s1 & s2 & s3 & ->).
  destruct (LinkNetLemmas.len4_explicit d LD) as (d0 & d1 & d2 & d3 & ->).
  pose proof (tr_ipv4_is_update e s0 s1 s2 s3 d0 d1 d2 d3 t ul p tb W UL E) as U.
  destruct (th_of t ul) as [th|].
  - destruct U as (TO & ck & _ & _ & ->). apply th_wire_bytes_ok. exact TO.
  - destruct U as (-> & _). apply bytes_ok_nil.
Qed.

Lemma tr6_bytes_ok e s d t ul p tb : len s = 16 -> len d = 16 -> tr_wf t = true -> ul < 65536 ->
  tr_ipv6 e s d t ul p = TOk tb -> bytes_ok tb.
Proof.
  intros LS LD W UL E. pose proof (tr_ipv6_is_update e s d t ul p tb LS LD W UL E) as U.
  destruct (th_of t ul) as [th|].
  - destruct U as (TO & ck & _ & _ & ->). apply th_wire_bytes_ok. exact TO.
  - destruct U as (-> & _). apply bytes_ok_nil.
Qed.

(* Premises: cfg_wf (which contains bytes_okb of every address / option / ICV
   buffer of the configuration) and bytes_ok of the payload. *)
Theorem build_bytes_ok e c p bs : cfg_wf c = true -> bytes_ok p -> build e c p = BOk bs -> bytes_ok bs.
Proof.
  intros W OKP E. destruct (cfg_wf_inv c W) as (WL & WV & WN & WT & WS).
  destruct (build_inv e c p bs W E) as (nb & xb & tb & -> & _ & _ & _ & P).
  pose proof (link_bytes_ok c WL) as OL. pose proof (vlan_bytes_ok c WV) as OV.
  pose proof (as_u16_lt (8 + len p)) as UL.
  destruct (c_net c) as [h x|h x|a]; cbn [net_wf] in WN.
  - apply andb_true_iff in WN. destruct WN as [WH WX]. destruct P as (EB & EWR & _ & ETR).
    destruct (v4_final_wf e h x (c_transport c) (len p) WH WX WT) as (WF & _).
    pose proof (ip4_bytes_ok _ _ WF EB) as OH.
    destruct (snh4_facts x _ WX (tr_ip_number_lt _ WT)) as (V1 & _ & _).
    pose proof (XP.write4_bytes_ok _ (snd (XM.set_next_headers4 x (tr_ip_number (c_transport c)))) V1) as OX.
    rewrite EWR in OX. cbn [fst] in OX.
    destruct (Ipv4Proofs.wf_ip4_facts h WH) as (_ & _ & (LS & _ & LD & _) & _).
    pose proof (tr4_bytes_ok e _ _ _ _ p tb LS LD WT UL ETR) as OT. okb.
  - apply andb_true_iff in WN. destruct WN as [WH WX]. destruct P as (-> & EWR & _ & ETR).
    destruct (XP.set_next_headers_facts x _ WX (tr_ip_number_lt _ WT)) as (V1 & NH & _).
    pose proof (XP.write_bytes_ok _ (snd (XM.set_next_headers x (tr_ip_number (c_transport c)))) V1) as OX.
    rewrite EWR in OX. cbn [fst] in OX.
    assert (OH : bytes_ok (BitFields.Model.Ipv6Header_to_bytes (v6_final h x (c_transport c) (len p)))).
    { apply ip6_bytes_ok; [exact WH| |exact NH].
      unfold v6_final, ip6_set_len_next. cbn [BitFields.Model.v6_payload_length]. apply as_u16_lt. }
    destruct (ip6_wf_inv h WH) as (_ & _ & _ & (LS & _) & (LD & _)).
    pose proof (tr6_bytes_ok e _ _ _ _ p tb LS LD WT UL ETR) as OT. okb.
  - destruct P as (-> & -> & ->). pose proof (arp_bytes_ok a WN). okb.
Qed.

(* SlicedPacket::from_ethernet / from_linux_sll / from_ip (models of Parse/Cursor.v, C03),
   chosen by the link layer of the builder like `wire_entry` *)
Definition crate_entry (c : cfg) (bs : bytes) : res sliced_packet :=
  match c_link c with
  | LkEthernet2 _ _ => SlicedPacket.from_ethernet bs
  | LkLinuxSll _ _ _ => SlicedPacket.from_linux_sll bs
  | LkNone => SlicedPacket.from_ip bs
  end.

Lemma vres_of_ok r v : Parse.StrictProofs.res_rel (vres_of r) (VOk v) -> exists sp, r = Ok sp /\ view sp = v.
Proof.
  destruct r as [sp|er|b]; cbn [vres_of Parse.StrictProofs.res_rel].
  - intros H. exists sp. split; [reflexivity|exact H].
  - destruct er; intros [].
  - intros [].
Qed.

Theorem crate_parse_back e c p bs :
  cfg_wf c = true -> bytes_ok p -> payload_admitted c (len p) = true -> build e c p = BOk bs ->
  exists sp, crate_entry c bs = Ok sp /\ view sp = expected_x c (len p).
Proof.
  intros W OKP PA E. pose proof (build_bytes_ok e c p bs W OKP E) as OKB.
  pose proof (parse_back e c p bs W PA E) as PB. unfold wire_entry in PB. unfold crate_entry.
  apply vres_of_ok. rewrite <- PB.
  destruct (c_link c) as [|s d|pt vl a].
  - apply Parse.StrictProofs.from_ip_rel. exact OKB.
  - apply Parse.StrictProofs.from_ethernet_rel. exact OKB.
  - apply Parse.StrictProofs.from_linux_sll_rel. exact OKB.
Qed.

(* a packet built without link layer through SlicedPacket::from_ether_type *)
Theorem crate_parse_back_ether_type e c p bs :
  cfg_wf c = true -> bytes_ok p -> payload_admitted c (len p) = true -> build e c p = BOk bs ->
  c_link c = LkNone ->
  let x := expected_x c (len p) in
  exists sp, SlicedPacket.from_ether_type (net_ether_type (c_net c)) bs = Ok sp /\
    view sp = mkVPacket (Some (VEtherPayload (mkVEp (net_ether_type (c_net c)) LsSlice (0, len bs))))
                        (v_exts x) (v_net x) (v_transport x).
Proof.
  intros W OKP PA E EL. cbv zeta. pose proof (build_bytes_ok e c p bs W OKP E) as OKB.
  pose proof (parse_back_ether_type e c p bs W PA E EL) as PB. cbv zeta in PB.
  apply vres_of_ok. rewrite <- PB. apply Parse.StrictProofs.from_ether_type_rel. exact OKB.
Qed.

(* no slicer entry point hits a Bug value (unchecked read, unwrap, ...) on built bytes,
   whatever the payload admits *)
Theorem crate_never_bug e c p bs et b : cfg_wf c = true -> bytes_ok p -> build e c p = BOk bs ->
  SlicedPacket.from_ethernet bs <> Bug b /\ SlicedPacket.from_linux_sll bs <> Bug b /\
  SlicedPacket.from_ether_type et bs <> Bug b /\ SlicedPacket.from_ip bs <> Bug b.
Proof.
  intros W OKP E. apply Parse.StrictProofs.strict_never_bug. exact (build_bytes_ok e c p bs W OKP E).
Qed.

(* wf_icmp4_type / wf_icmp6_type (C08) = the field ranges of the Rust types (which cfg_wf
   contains) AND "a raw Unknown{type, code} does not name a typed kind".  Only the second
   part is an extra hypothesis: *)
Definition icmp4_raw_names_typed (t : CtlMsg.Spec.Icmpv4Type) : bool :=
  match t with
  | CtlMsg.Spec.V4Unknown ty cd _ _ _ _ => Icmp4.icmp4_typed ty cd
  | _ => false
  end.
Definition icmp6_raw_names_typed (t : CtlMsg.Spec.Icmpv6Type) : bool :=
  match t with
  | CtlMsg.Spec.V6Unknown ty cd _ _ _ _ => Icmp6.icmp6_typed ty cd
  | _ => false
  end.

Lemma icmp4_wf_gap t : icmp4_cfg_wf t = true -> Icmp4.wf_icmp4_type t = negb (icmp4_raw_names_typed t).
Proof.
  destruct t; cbn [icmp4_cfg_wf Icmp4.wf_icmp4_type icmp4_raw_names_typed negb]; intros W;
    try exact W.
  rewrite W. reflexivity.
Qed.
Lemma icmp6_wf_gap t : icmp6_cfg_wf t = true -> Icmp6.wf_icmp6_type t = negb (icmp6_raw_names_typed t).
Proof.
  destruct t; cbn [icmp6_cfg_wf Icmp6.wf_icmp6_type icmp6_raw_names_typed negb]; intros W;
    try exact W.
  rewrite W. reflexivity.
Qed.

(* the (type, code) pairs that have a typed variant, among all 256 x 256 *)
Definition all_pairs : list (N * N) := flat_map (fun t => map (fun c => (t, c)) (nrange 256)) (nrange 256).
Definition icmp4_typed_pairs : list (N * N) :=
  [(0, 0); (3, 0); (3, 1); (3, 2); (3, 3); (3, 4); (3, 5); (3, 6); (3, 7); (3, 8); (3, 9); (3, 10); (3, 11);
   (3, 12); (3, 13); (3, 14); (3, 15); (5, 0); (5, 1); (5, 2); (5, 3); (8, 0); (11, 0); (11, 1); (12, 0);
   (12, 1); (12, 2); (13, 0); (14, 0)].
Definition icmp6_typed_pairs : list (N * N) :=
  [(1, 0); (1, 1); (1, 2); (1, 3); (1, 4); (1, 5); (1, 6); (2, 0); (3, 0); (3, 1); (4, 0); (4, 1); (4, 2);
   (4, 3); (4, 4); (4, 5); (4, 6); (4, 7); (4, 8); (4, 9); (4, 10); (128, 0); (129, 0); (133, 0); (134, 0);
   (135, 0); (136, 0); (137, 0)].
(* A (type, code) table answers None for every type octet that heads none of its rows, so
   only the rows of the few type octets of the RFC tables have to be looked at. *)
Definition has_type {A} (t : N) (tbl : list (N * N * A)) : bool := existsb (fun r => fst (fst r) =? t) tbl.

Lemma lookup_other_type {A} t c (tbl : list (N * N * A)) : has_type t tbl = false -> CtlMsg.Spec.lookup t c tbl = None.
Proof.
  induction tbl as [|[[t' c'] a] r IH]; [reflexivity|]. cbn [has_type existsb CtlMsg.Spec.lookup fst].
  intros H. apply orb_false_iff in H. destruct H as [H1 H2]. rewrite H1. exact (IH H2).
Qed.

Lemma filter_pairs (f : N -> N -> bool) (ts cs : list N) :
  filter (fun q => f (fst q) (snd q)) (flat_map (fun t => map (fun c => (t, c)) cs) ts)
  = flat_map (fun t => map (fun c => (t, c)) (filter (f t) cs)) ts.
Proof.
  induction ts as [|t ts IH]; [reflexivity|]. cbn [flat_map]. rewrite filter_app, IH. f_equal.
  clear IH. induction cs as [|c cs IHc]; [reflexivity|]. cbn [map filter fst snd]. rewrite IHc.
  destruct (f t c); reflexivity.
Qed.

Lemma rows_of_types (f : N -> N -> bool) (g : N -> bool) (ts cs : list N) :
  (forall t c, g t = false -> f t c = false) ->
  flat_map (fun t => map (fun c => (t, c)) (filter (f t) cs)) ts
  = flat_map (fun t => map (fun c => (t, c)) (filter (f t) cs)) (filter g ts).
Proof.
  intros H. induction ts as [|t ts IH]; [reflexivity|]. cbn [flat_map filter]. destruct (g t) eqn:G.
  - cbn [flat_map]. rewrite IH. reflexivity.
  - rewrite <- IH. replace (filter (f t) cs) with (@nil N); [reflexivity|].
    clear IH. induction cs as [|c cs IHc]; [reflexivity|]. cbn [filter]. rewrite (H t c G). exact IHc.
Qed.

Lemma icmp_typed_pairs_exact :
  filter (fun q => Icmp4.icmp4_typed (fst q) (snd q)) all_pairs = icmp4_typed_pairs /\
  filter (fun q => Icmp6.icmp6_typed (fst q) (snd q)) all_pairs = icmp6_typed_pairs.
Proof.
  unfold all_pairs. split; rewrite filter_pairs.
  - rewrite (rows_of_types _ (fun t => has_type t CtlMsg.Spec.icmp4_table || has_type t CtlMsg.Spec.icmp4_fixed_table)).
    + vm_compute. reflexivity.
    + intros t c G. apply orb_false_iff in G. destruct G as [G1 G2]. unfold Icmp4.icmp4_typed.
      rewrite (lookup_other_type t c _ G1), (lookup_other_type t c _ G2). reflexivity.
  - rewrite (rows_of_types _ (fun t => has_type t CtlMsg.Spec.icmp6_table)).
    + vm_compute. reflexivity.
    + intros t c G. unfold Icmp6.icmp6_typed. rewrite (lookup_other_type t c _ G). reflexivity.
Qed.

Theorem icmp4_value_back_cfg e c p bs t : cfg_wf c = true -> build e c p = BOk bs ->
  c_transport c = TrIcmpv4 t -> (forall a, c_net c <> NtArp a) ->
  icmp4_raw_names_typed t = false ->
  exists ck, ck < 65536 /\
    let seg := drop (off_transport c) bs in
    let h := {| Icmp4.icmp4_type := t; Icmp4.icmp4_checksum := ck |} in
    Icmp4.icmp4_read seg = Roundtrip.Common.Ok (h, p) /\
    (Icmp4.icmp4_type_header_len t = 8 \/ p = [] ->
     Icmp4.icmp4_from_slice seg = Roundtrip.Common.Ok (h, p) /\
     CtlMsg.Spec.icmp4 seg = CtlMsg.Spec.Ok (t, Icmp4.icmp4_type_header_len t, p) /\
     CtlMsg.Model.Icmpv4Slice.view seg = CtlMsg.Spec.Ok (t, Icmp4.icmp4_type_header_len t, p)).
Proof.
  intros W E ET NA NT. apply (icmp4_value_back e); try assumption.
  destruct (cfg_wf_inv c W) as (_ & _ & _ & WT & _). rewrite ET in WT. cbn [tr_wf] in WT.
  rewrite (icmp4_wf_gap t WT), NT. reflexivity.
Qed.

Theorem icmp6_value_back_cfg e c p bs t : cfg_wf c = true -> build e c p = BOk bs ->
  c_transport c = TrIcmpv6 t -> (forall a, c_net c <> NtArp a) ->
  icmp6_raw_names_typed t = false ->
  exists ck, ck < 65536 /\
    let seg := drop (off_transport c) bs in
    let h := {| Icmp6.icmp6_type := t; Icmp6.icmp6_checksum := ck |} in
    Icmp6.icmp6_read seg = Roundtrip.Common.Ok (h, p) /\
    Icmp6.icmp6_from_slice seg = Roundtrip.Common.Ok (h, p) /\
    CtlMsg.Spec.icmp6 seg = CtlMsg.Spec.Ok (t, p) /\
    CtlMsg.Model.Icmpv6Slice.view seg = CtlMsg.Spec.Ok (t, p).
Proof.
  intros W E ET NA NT. apply (icmp6_value_back e); try assumption.
  destruct (cfg_wf_inv c W) as (_ & _ & _ & WT & _). rewrite ET in WT. cbn [tr_wf] in WT.
  rewrite (icmp6_wf_gap t WT), NT. reflexivity.
Qed.
