(* Builder/ProofsSinks.v -- property C10: the three sinks.
   C16 (IoFault/Model.v) models final_write_with_net as a WRITE PROGRAM over abstract part
   encodings (`bcfg`) and proves what write(io::Write), write_to_vec and write_to_slice make of
   such a program.  `bcfg_of e c p` instantiates the
   parts of a C16 builder configuration with the encodings of THIS model (Builder/Model.v), and
     bridge        : the write program of C16 writes exactly `snd (build_run e c p)` and ends
                     with the verdict `fst (build_run e c p)` -- for EVERY well-formed
                     configuration, error outcomes included (the IPv6 extension walk of C12,
                     ExtChain.Model.write, and the one of C16, x6_write_internal, are two
                     transliterations of the same Rust loop: `x6_bridge` shows they agree);
     bcfg_of_wf    : header_len() / LEN of every part equals the length of its encoding;
     size_bridge   : C16's final_size = this model's final_size;
     three_sinks   : hence write_to_vec, write (into a sink that does not fail before the end)
                     and write_to_slice (into a buffer of at least size() bytes) all deliver
                     `build_run`'s bytes and verdict; write_to_slice refuses every shorter
                     buffer untouched with Space(size()).
   Parts behind an error are never written; they are represented by a placeholder of the
   declared length (`fit`), which is not observable. *)
From EP Require Import Base.Bytes Checksum.Spec Checksum.Model Checksum.Proofs.
From EP Require Import Roundtrip.Common Roundtrip.CommonProofs Roundtrip.LinkNetLemmas.
From EP Require Roundtrip.Tcp Roundtrip.TcpProofs Roundtrip.Ipv4 Roundtrip.Ipv4Proofs.
From EP Require CtlMsg.Spec Roundtrip.Icmp4 Roundtrip.Icmp6.
From EP Require ExtChain.Spec ExtChain.Model ExtChain.View ExtChain.Proofs BitFields.Model.
From EP Require IoFault.Spec IoFault.Model IoFault.Proofs.
From EP Require Import Builder.Model Builder.Spec Builder.Proofs Builder.ProofsCk Builder.SpecX Builder.ProofsTr
  Builder.ProofsNx.
From Coq Require Import ZArith Lia ZifyN ZifyBool.
Local Open Scope N_scope.

Module IO := EP.IoFault.Model.
Module IOS := EP.IoFault.Spec.
Module IOP := EP.IoFault.Proofs.

Definition fit (n : N) (b : bytes) : bytes := if len b =? n then b else zeros n.
Lemma fit_len n b : len (fit n b) = n.
Proof. unfold fit. destruct (len b =? n) eqn:E; [apply N.eqb_eq; exact E|apply len_zeros]. Qed.
Lemma fit_eq n b : len b = n -> fit n b = b.
Proof. intros H. unfold fit. rewrite H, N.eqb_refl. reflexivity. Qed.

Definition part_n (n : N) (b : bytes) : IO.part := IO.mk_part n (fit n b).
Lemma part_n_wf n b : IOP.part_wf (part_n n b).
Proof. unfold IOP.part_wf, part_n. cbn. symmetry. apply fit_len. Qed.

Definition opt_bytes (o : option bytes) : bytes := match o with Some b => b | None => [] end.

(* extension headers as the walkers of C16 see them: next_header field, header_len(), to_bytes() *)
Definition raw_ext (h : XM.RawExt) : IO.ext :=
  IO.mk_ext (XM.r_next_header h) (XM.raw_header_len h) (fit (XM.raw_header_len h) (opt_bytes (XM.raw_to_bytes h))).
Definition frag_ext (h : XM.Frag) : IO.ext :=
  IO.mk_ext (XM.f_next_header h) (XM.frag_header_len h) (XM.frag_to_bytes h).
Definition auth_ext (h : XM.AuthH) : IO.ext :=
  IO.mk_ext (XM.a_next_header h) (XM.auth_header_len h) (fit (XM.auth_header_len h) (opt_bytes (XM.auth_to_bytes h))).

Definition x6_of (e : XM.Exts6) : IO.exts6 :=
  IO.mk_exts6 (option_map raw_ext (XM.hop_by_hop_options e)) (option_map raw_ext (XM.destination_options e))
    (option_map (fun r => (raw_ext (XM.rt_routing r), option_map raw_ext (XM.rt_final_destination_options r)))
                (XM.routing e))
    (option_map frag_ext (XM.fragment e)) (option_map auth_ext (XM.auth e)).
Definition x4_of (e : XM.Exts4) : IO.exts4 := IO.mk_exts4 (option_map auth_ext (XM.auth4 e)).

Definition needs_of (f : XM.Flags) : IO.needs :=
  IO.mk_needs (XM.fl_hop_by_hop_options f) (XM.fl_destination_options f) (XM.fl_routing f)
              (XM.fl_fragment f) (XM.fl_auth f) (XM.fl_final_destination_options f).

Lemma raw_ext_enc h bs : XM.raw_valid h = true -> XM.raw_to_bytes h = Some bs -> IO.e_enc (raw_ext h) = bs.
Proof.
  intros V E. unfold raw_ext. cbn [IO.e_enc]. rewrite E. cbn [opt_bytes].
  apply fit_eq. exact (XP.raw_to_bytes_len h bs V E).
Qed.
Lemma auth_ext_enc h bs : XM.auth_valid h = true -> XM.auth_to_bytes h = Some bs -> IO.e_enc (auth_ext h) = bs.
Proof.
  intros V E. unfold auth_ext. cbn [IO.e_enc]. rewrite E. cbn [opt_bytes].
  apply fit_eq. exact (XP.auth_to_bytes_len h bs V E).
Qed.

Lemma raw_ext_wf h : IOP.ext_wf (raw_ext h).
Proof. unfold IOP.ext_wf, raw_ext. cbn. symmetry. apply fit_len. Qed.
Lemma auth_ext_wf h : IOP.ext_wf (auth_ext h).
Proof. unfold IOP.ext_wf, auth_ext. cbn. symmetry. apply fit_len. Qed.
Lemma frag_ext_wf h : IOP.ext_wf (frag_ext h).
Proof. reflexivity. Qed.

Lemma x6_of_wf e : IOP.exts6_wf (x6_of e).
Proof.
  unfold IOP.exts6_wf, x6_of. cbn [IO.x6_hop IO.x6_dest IO.x6_routing IO.x6_frag IO.x6_auth].
  destruct e as [[h|] [d|] [[rt [fd|]]|] [fr|] [a|]]; cbn; repeat split;
    first [apply raw_ext_wf | apply auth_ext_wf | apply frag_ext_wf | exact I].
Qed.
Lemma x4_of_wf e : IOP.exts4_wf (x4_of e).
Proof. unfold IOP.exts4_wf, x4_of. destruct e as [[a|]]; cbn; [apply auth_ext_wf|exact I]. Qed.

Lemma x6_of_len e : IO.x6_header_len (x6_of e) = XM.header_len e.
Proof.
  unfold IO.x6_header_len, XM.header_len, x6_of.
  destruct e as [[h|] [d|] [[rt [fd|]]|] [fr|] [a|]]; cbn; lia.
Qed.
Lemma x4_of_len e : IO.x4_header_len (x4_of e) = XM.header_len4 e.
Proof. destruct e as [[a|]]; reflexivity. Qed.

Lemma x6_needs_of e : IO.x6_needs (x6_of e) = needs_of (XM.flags_init e).
Proof. destruct e as [[h|] [d|] [[rt [fd|]]|] [fr|] [a|]]; reflexivity. Qed.

Lemma x6_hop_of e : IO.x6_hop (x6_of e) = option_map raw_ext (XM.hop_by_hop_options e).
Proof. reflexivity. Qed.

Definition cerr_of_walk (w : XM.walk_error) : IO.cerr :=
  match w with XM.HopByHopNotAtStart => IO.CHopNotAtStart | XM.ExtNotReferenced n => IO.CNotReferenced n end.
Definition cerr_of (er : build_error) : IO.cerr :=
  match er with
  | EPayloadLen _ _ _ => IO.CPayloadLen
  | EIpv4Exts w | EIpv6Exts w => cerr_of_walk w
  | EIcmpv6InIpv4 => IO.CIcmpv6InIpv4
  end.
Definition verdict_of (v : verdict) : IO.verdict :=
  match v with VdOk => IO.VOk | VdErr er => IO.VContent (cerr_of er) | VdPanic _ => IO.VPanic end.
Definition wverd {A} (r : XM.res XM.walk_error A) : IO.verdict :=
  match r with
  | XM.Ok _ => IO.VOk
  | XM.Err w => IO.VContent (cerr_of_walk w)
  | XM.Panic => IO.VPanic
  | XM.OutOfFuel => IO.VFuel
  end.

Lemma check_all_done_final {A} f (a : A) : wverd (XM.check_all_done f a) = IO.x6_final (needs_of f).
Proof. unfold XM.check_all_done, IO.x6_final, needs_of. destruct f as [[] [] [] [] [] []]; reflexivity. Qed.

Lemma loop_lockstep f1 : forall f2 e nw next rw w,
  XM.exts6_valid e = true ->
  snd (XM.write_loop f1 e nw next rw w) <> XM.OutOfFuel ->
  IO.wprog_verdict (IO.x6_loop f2 (x6_of e) (needs_of nw) next rw) <> IO.VFuel ->
  fst (XM.write_loop f1 e nw next rw w) = w ++ IO.wprog_bytes (IO.x6_loop f2 (x6_of e) (needs_of nw) next rw) /\
  wverd (snd (XM.write_loop f1 e nw next rw w)) = IO.wprog_verdict (IO.x6_loop f2 (x6_of e) (needs_of nw) next rw).
Proof.
  induction f1 as [|f1 IH]; intros f2 e nw next rw w V NF1 NF2; [exfalso; apply NF1; reflexivity|].
  destruct f2 as [|f2]; [exfalso; apply NF2; reflexivity|].
  pose proof (XP.exts6_valid_inv e V) as (Vh & Vd & Vr & Vf & Va).
  assert (FIN : forall (w0 : bytes),
    fst (w0, XM.check_all_done nw tt) = w0 ++ IO.wprog_bytes (IO.WRet (IO.x6_final (needs_of nw))) /\
    wverd (snd (w0, XM.check_all_done nw tt)) = IO.wprog_verdict (IO.WRet (IO.x6_final (needs_of nw)))).
  { intros w0. cbn [fst snd IO.wprog_bytes IO.wprog_verdict]. rewrite app_nil_r. split; [reflexivity|apply check_all_done_final]. }
  revert NF1 NF2. cbn [XM.write_loop IO.x6_loop].
  change (IO.n_hop (needs_of nw)) with (XM.fl_hop_by_hop_options nw).
  change (IO.n_dest (needs_of nw)) with (XM.fl_destination_options nw).
  change (IO.n_route (needs_of nw)) with (XM.fl_routing nw).
  change (IO.n_frag (needs_of nw)) with (XM.fl_fragment nw).
  change (IO.n_auth (needs_of nw)) with (XM.fl_auth nw).
  change (IO.n_final (needs_of nw)) with (XM.fl_final_destination_options nw).
  change (IO.set_final (needs_of nw)) with (needs_of (XM.clr_final nw)).
  change (IO.set_dest (needs_of nw)) with (needs_of (XM.clr_dst nw)).
  change (IO.set_route (needs_of nw)) with (needs_of (XM.clr_routing nw)).
  change (IO.set_frag (needs_of nw)) with (needs_of (XM.clr_frag nw)).
  change (IO.set_auth (needs_of nw)) with (needs_of (XM.clr_auth nw)).
  unfold XM.arm_of, IO.IPV6_HOP_BY_HOP, IO.IPV6_DEST_OPTIONS, IO.IPV6_ROUTE, IO.IPV6_FRAG, IO.AUTH,
    XM.IPV6_HOP_BY_HOP, XM.IPV6_DEST_OPTIONS, XM.IPV6_ROUTE, XM.IPV6_FRAG, XM.AUTH.
  destruct (next =? 0).
  { intros _ _. destruct (XM.fl_hop_by_hop_options nw); [|apply FIN].
    cbn [fst snd IO.wprog_bytes IO.wprog_verdict wverd cerr_of_walk]. rewrite app_nil_r. split; reflexivity. }
  destruct (next =? 60).
  { destruct rw.
    - destruct (XM.fl_final_destination_options nw); [|intros _ _; apply FIN].
      unfold x6_of at 1 3 5. cbn [IO.x6_routing].
      destruct (XM.routing e) as [r|] eqn:ER; cbn [option_map].
      2:{ intros _ _. cbn. rewrite app_nil_r. split; reflexivity. }
      cbn [XM.opt_valid] in Vr. apply XP.routing_valid_inv in Vr. destruct Vr as [Vrt Vfd].
      destruct (XM.rt_final_destination_options r) as [hd|] eqn:EF; cbn [option_map].
      2:{ intros _ _. cbn. rewrite app_nil_r. split; reflexivity. }
      cbn [XM.opt_valid] in Vfd. rewrite (XP.raw_to_bytes_valid hd Vfd).
      rewrite (raw_ext_enc hd _ Vfd (XP.raw_to_bytes_valid hd Vfd)).
      cbn [IO.wprog_bytes IO.wprog_verdict IO.e_nh raw_ext].
      intros NF1 NF2. destruct (IH f2 e (XM.clr_final nw) (XM.r_next_header hd) true
                                  (w ++ XM.r_next_header hd :: XM.r_header_length hd :: XM.r_payload hd) V NF1 NF2) as (A & B').
      rewrite A, B', <- app_assoc. split; reflexivity.
    - destruct (XM.fl_destination_options nw); [|intros _ _; apply FIN].
      unfold x6_of at 1 3 5. cbn [IO.x6_dest].
      destruct (XM.destination_options e) as [hd|] eqn:ED; cbn [option_map].
      2:{ intros _ _. cbn. rewrite app_nil_r. split; reflexivity. }
      cbn [XM.opt_valid] in Vd. rewrite (XP.raw_to_bytes_valid hd Vd).
      rewrite (raw_ext_enc hd _ Vd (XP.raw_to_bytes_valid hd Vd)).
      cbn [IO.wprog_bytes IO.wprog_verdict IO.e_nh raw_ext].
      intros NF1 NF2. destruct (IH f2 e (XM.clr_dst nw) (XM.r_next_header hd) false
                                  (w ++ XM.r_next_header hd :: XM.r_header_length hd :: XM.r_payload hd) V NF1 NF2) as (A & B').
      rewrite A, B', <- app_assoc. split; reflexivity. }
  destruct (next =? 43).
  { destruct (XM.fl_routing nw); [|intros _ _; apply FIN].
    unfold x6_of at 1 3 5. cbn [IO.x6_routing].
    destruct (XM.routing e) as [r|] eqn:ER; cbn [option_map].
    2:{ intros _ _. cbn. rewrite app_nil_r. split; reflexivity. }
    cbn [XM.opt_valid] in Vr. apply XP.routing_valid_inv in Vr. destruct Vr as [Vrt Vfd].
    cbv zeta. rewrite (XP.raw_to_bytes_valid _ Vrt).
    rewrite (raw_ext_enc _ _ Vrt (XP.raw_to_bytes_valid _ Vrt)).
    cbn [IO.wprog_bytes IO.wprog_verdict IO.e_nh raw_ext].
    intros NF1 NF2. destruct (IH f2 e (XM.clr_routing nw) (XM.r_next_header (XM.rt_routing r)) true
        (w ++ XM.r_next_header (XM.rt_routing r) :: XM.r_header_length (XM.rt_routing r) :: XM.r_payload (XM.rt_routing r))
        V NF1 NF2) as (A & B').
    rewrite A, B', <- app_assoc. split; reflexivity. }
  destruct (next =? 44).
  { destruct (XM.fl_fragment nw); [|intros _ _; apply FIN].
    unfold x6_of at 1 3 5. cbn [IO.x6_frag].
    destruct (XM.fragment e) as [hd|] eqn:EF; cbn [option_map].
    2:{ intros _ _. cbn. rewrite app_nil_r. split; reflexivity. }
    cbn [IO.wprog_bytes IO.wprog_verdict IO.e_nh IO.e_enc frag_ext].
    intros NF1 NF2. destruct (IH f2 e (XM.clr_frag nw) (XM.f_next_header hd) rw (w ++ XM.frag_to_bytes hd) V NF1 NF2) as (A & B').
    rewrite A, B', <- app_assoc. split; reflexivity. }
  destruct (next =? 51).
  { destruct (XM.fl_auth nw); [|intros _ _; apply FIN].
    unfold x6_of at 1 3 5. cbn [IO.x6_auth].
    destruct (XM.auth e) as [hd|] eqn:EA; cbn [option_map].
    2:{ intros _ _. cbn. rewrite app_nil_r. split; reflexivity. }
    cbn [XM.opt_valid] in Va. rewrite (XP.auth_to_bytes_valid hd Va).
    rewrite (auth_ext_enc hd _ Va (XP.auth_to_bytes_valid hd Va)).
    cbn [IO.wprog_bytes IO.wprog_verdict IO.e_nh auth_ext].
    intros NF1 NF2. destruct (IH f2 e (XM.clr_auth nw) (XM.a_next_header hd) rw (w ++ XP.auth_bytes hd) V NF1 NF2) as (A & B').
    rewrite A, B', <- app_assoc. split; reflexivity. }
  intros _ _. apply FIN.
Qed.

Lemma not_fuel_of_ok v : IOP.verdict_ok v -> v <> IO.VFuel.
Proof. destruct v; cbn; intros H; try discriminate; destruct H. Qed.

(* Ipv6Extensions::write_internal: C12's model and C16's write program *)
Lemma x6_bridge e first : XM.exts6_valid e = true ->
  IO.wprog_bytes (IO.x6_write_internal (x6_of e) first) = fst (XM.write e first) /\
  IO.wprog_verdict (IO.x6_write_internal (x6_of e) first) = wverd (snd (XM.write e first)).
Proof.
  intros V. pose proof (XP.exts6_valid_inv e V) as (Vh & _).
  pose proof (IOP.x6_write_internal_verdict (x6_of e) first) as OKV. apply not_fuel_of_ok in OKV.
  assert (NF : snd (XM.write e first) <> XM.OutOfFuel).
  { pose proof (XP.write_iff_walk e first V) as WW.
    destruct (XM.next_header e first); try contradiction; rewrite WW; discriminate. }
  revert OKV NF. unfold IO.x6_write_internal, XM.write. rewrite x6_needs_of.
  unfold IO.IPV6_HOP_BY_HOP, XM.IPV6_HOP_BY_HOP.
  (* the fuel values play no role: keep them out of reach of conversion *)
  generalize XM.LOOP_FUEL, IO.X6_FUEL. intros f1 f2.
  destruct (0 =? first).
  - rewrite x6_hop_of.
    destruct (XM.hop_by_hop_options e) as [hd|] eqn:EH; cbn [option_map].
    + cbn [XM.opt_valid] in Vh. rewrite (XP.raw_to_bytes_valid hd Vh).
      rewrite (raw_ext_enc hd _ Vh (XP.raw_to_bytes_valid hd Vh)).
      cbn [IO.wprog_bytes IO.wprog_verdict IO.e_nh raw_ext].
      change (IO.set_hop (needs_of (XM.flags_init e))) with (needs_of (XM.clr_hop (XM.flags_init e))).
      intros OKV NF.
      destruct (loop_lockstep f1 f2 e _ _ false _ V NF OKV) as (A & B').
      rewrite A, B'. split; reflexivity.
    + intros OKV NF. destruct (loop_lockstep f1 f2 e _ _ false [] V NF OKV) as (A & B').
      cbn [app] in A. rewrite A, B'. split; reflexivity.
  - intros OKV NF. destruct (loop_lockstep f1 f2 e _ _ false [] V NF OKV) as (A & B').
    cbn [app] in A. rewrite A, B'. split; reflexivity.
Qed.

Lemma x4_bridge e first : XM.exts4_valid e = true ->
  IO.wprog_bytes (IO.x4_write_internal (x4_of e) first) = fst (XM.write4 e first) /\
  IO.wprog_verdict (IO.x4_write_internal (x4_of e) first) = wverd (snd (XM.write4 e first)).
Proof.
  unfold XM.exts4_valid, IO.x4_write_internal, XM.write4, x4_of. cbn [IO.x4_auth].
  destruct (XM.auth4 e) as [a|]; cbn [XM.opt_valid option_map]; intros V; [|split; reflexivity].
  unfold IO.AUTH, XM.AUTH. destruct (51 =? first); [|split; reflexivity].
  rewrite (XP.auth_to_bytes_valid a V).
  cbn [IO.w1 IO.wprog_bytes IO.wprog_verdict fst snd wverd].
  rewrite (auth_ext_enc a _ V (XP.auth_to_bytes_valid a V)), app_nil_r. split; reflexivity.
Qed.

Definition tr_part (t : transport_cfg) (r : tres) : option IO.part :=
  match t with
  | TrNone _ => None                      (* PacketBuilderStep<IpHeaders>::write(ip_number, ..): transport_header = None *)
  | _ => Some (part_n (tr_header_len t) (match r with TOk tb => tb | _ => [] end))
  end.
Definition tr_mid (r : tres) : option IO.cerr :=
  match r with TErr er => Some (cerr_of er) | _ => None end.

Definition link_part (c : cfg) : option IO.part :=
  match c_link c with LkNone => None | _ => Some (part_n (link_len c) (link_bytes c)) end.
Definition vlan_parts (c : cfg) : list IO.part :=
  let net_et := net_ether_type (c_net c) in
  match c_vlan c with
  | VlNone => []
  | VlSingle v => [part_n 4 (BitFields.Model.SingleVlanHeader_to_bytes (vlan_set_ether_type v net_et))]
  | VlDouble o i =>
      [part_n 4 (BitFields.Model.SingleVlanHeader_to_bytes (vlan_set_ether_type o 33024));
       part_n 4 (BitFields.Model.SingleVlanHeader_to_bytes (vlan_set_ether_type i net_et))]
  end.

Definition bcfg_of (e : endian) (c : cfg) (p : bytes) : IO.bcfg :=
  let t := c_transport c in
  match c_net c with
  | NtArp a =>
      IO.mk_bcfg (link_part c) (vlan_parts c) (IO.BArp (part_n (arp_packet_len a) (arp_to_bytes a))) None None None
  | NtIpv4 h x =>
      let s := XM.set_next_headers4 x (tr_ip_number t) in
      let r := tr_ipv4 e (Ipv4.i4_source h) (Ipv4.i4_destination h) t (as_u16 (8 + len p)) p in
      IO.mk_bcfg (link_part c) (vlan_parts c)
        (IO.BIpv4 (part_n (Ipv4.ip4_header_len h) (opt_bytes (Ipv4.ip4_to_bytes (v4_final e h x t (len p)))))
                  (snd s) (x4_of (fst s)))
        (if v4_max h <? v4_value x t (len p) then Some IO.CPayloadLen else None)
        (tr_mid r) (tr_part t r)
  | NtIpv6 h x =>
      let s := XM.set_next_headers x (tr_ip_number t) in
      let r := tr_ipv6 e (BitFields.Model.v6_source h) (BitFields.Model.v6_destination h) t (as_u16 (8 + len p)) p in
      IO.mk_bcfg (link_part c) (vlan_parts c)
        (IO.BIpv6 (part_n 40 (BitFields.Model.Ipv6Header_to_bytes (v6_final h x t (len p))))
                  (snd s) (x6_of (fst s)))
        (if 65535 <? v6_size x t (len p) then Some IO.CPayloadLen else None)
        (tr_mid r) (tr_part t r)
  end.

Lemma tr_part_wf t r : IOP.opt_wf IOP.part_wf (tr_part t r).
Proof. destruct t; cbn; try exact I; apply part_n_wf. Qed.
Lemma link_part_wf c : IOP.opt_wf IOP.part_wf (link_part c).
Proof. unfold link_part. destruct (c_link c); cbn; try exact I; apply part_n_wf. Qed.
Lemma vlan_parts_wf c : Forall IOP.part_wf (vlan_parts c).
Proof. unfold vlan_parts. destruct (c_vlan c); repeat constructor; apply part_n_wf. Qed.

Theorem bcfg_of_wf e c p : IOP.bcfg_wf (bcfg_of e c p).
Proof.
  unfold IOP.bcfg_wf, bcfg_of. destruct (c_net c) as [h x|h x|a]; cbn [IO.b_link IO.b_vlan IO.b_net IO.b_transport].
  - split; [apply link_part_wf|]. split; [apply vlan_parts_wf|]. split; [|apply tr_part_wf].
    split; [apply part_n_wf|apply x4_of_wf].
  - split; [apply link_part_wf|]. split; [apply vlan_parts_wf|]. split; [|apply tr_part_wf].
    split; [apply part_n_wf|apply x6_of_wf].
  - split; [apply link_part_wf|]. split; [apply vlan_parts_wf|]. split; [apply part_n_wf|exact I].
Qed.

Lemma tr_part_len t r : IO.opt_plen (tr_part t r) = tr_header_len t.
Proof. destruct t; reflexivity. Qed.

Theorem size_bridge e c p n : cfg_wf c = true -> IO.final_size (bcfg_of e c p) n = final_size c n.
Proof.
  intros W. destruct (cfg_wf_inv c W) as (WL & WV & WN & WT & WS).
  unfold IO.final_size, final_size, bcfg_of, net_len, transport_len.
  assert (L1 : IO.opt_plen (link_part c) = link_len c).
  { unfold link_part, link_len. destruct (c_link c); reflexivity. }
  assert (L2 : IO.parts_len (vlan_parts c) = vlan_len c).
  { unfold vlan_parts, vlan_len. destruct (c_vlan c); reflexivity. }
  destruct (c_net c) as [h x|h x|a]; cbn [net_wf] in WN;
    cbn [IO.b_link IO.b_vlan IO.b_net IO.b_transport IO.p_len part_n]; rewrite L1, L2.
  - apply andb_true_iff in WN. destruct WN as [WH WX].
    destruct (snh4_facts x _ WX (tr_ip_number_lt _ WT)) as (_ & _ & HL).
    rewrite x4_of_len, HL, tr_part_len. reflexivity.
  - apply andb_true_iff in WN. destruct WN as [WH WX].
    destruct (XP.set_next_headers_facts x _ WX (tr_ip_number_lt _ WT)) as (_ & _ & HL).
    rewrite x6_of_len, HL, tr_part_len. reflexivity.
  - cbn [IO.opt_plen]. reflexivity.
Qed.

(* a program ends with verdict v after writing bs; a sequence runs its second part only
   behind VOk *)
Definition runs (w : IO.wprog) (bs : bytes) (v : IO.verdict) : Prop :=
  IO.wprog_bytes w = bs /\ IO.wprog_verdict w = v.

Lemma runs_ret v : runs (IO.WRet v) [] v.
Proof. split; reflexivity. Qed.
Lemma runs_w1 b : runs (IO.w1 b) b IO.VOk.
Proof. split; [apply app_nil_r|reflexivity]. Qed.
Lemma runs_seq a b ba bb v : runs a ba IO.VOk -> runs b bb v -> runs (IO.wseq a b) (ba ++ bb) v.
Proof.
  intros [A1 A2] [B1 B2]. destruct (IOP.wseq_bytes_ok a b A2) as [E1 E2].
  split; [rewrite E1, A1, B1; reflexivity|rewrite E2; exact B2].
Qed.
Lemma runs_stop a b ba v : runs a ba v -> v <> IO.VOk -> runs (IO.wseq a b) ba v.
Proof.
  intros [A1 A2] NV. rewrite <- A2 in NV. destruct (IOP.wseq_bytes_err a b NV) as [E1 E2].
  split; [rewrite E1; exact A1|rewrite E2; exact A2].
Qed.
Lemma runs_as w bs v bs' v' : runs w bs v -> bs = bs' -> v = v' -> runs w bs' v'.
Proof. intros R <- <-. exact R. Qed.

Lemma link_part_run c : link_wf (c_link c) = true -> runs (IO.opt_w (link_part c)) (link_bytes c) IO.VOk.
Proof.
  intros WL. pose proof (link_bytes_len c WL) as LL. unfold link_part.
  assert (G : runs (IO.opt_w (Some (part_n (link_len c) (link_bytes c)))) (link_bytes c) IO.VOk).
  { eapply runs_as; [apply runs_w1|apply fit_eq; exact LL|reflexivity]. }
  unfold link_bytes in *. destruct (c_link c); [apply runs_ret|exact G|exact G].
Qed.

Lemma vlan_parts_run c : runs (IO.parts_w (vlan_parts c)) (vlan_bytes c) IO.VOk.
Proof.
  unfold vlan_parts, vlan_bytes, runs. destruct (c_vlan c) as [|v|o i]; cbn; rewrite ?app_nil_r; split; reflexivity.
Qed.

Lemma part_run n b : len b = n -> runs (IO.w1 (IO.p_enc (part_n n b))) b IO.VOk.
Proof. intros L. eapply runs_as; [apply runs_w1|apply fit_eq; exact L|reflexivity]. Qed.

Lemma tr_part_run t tb : len tb = tr_header_len t -> (forall n, t = TrNone n -> tb = []) ->
  runs (IO.opt_w (tr_part t (TOk tb))) tb IO.VOk.
Proof.
  intros L NN. destruct t as [n| | | |]; try (apply part_run; exact L).
  rewrite (NN n eq_refl). apply runs_ret.
Qed.

Lemma ipv6_part_err e h x t p w : v6_size x t (len p) <= 65535 ->
  snd (XM.write (fst (XM.set_next_headers x (tr_ip_number t))) (snd (XM.set_next_headers x (tr_ip_number t)))) = XM.Err w ->
  ipv6_part e h x t p =
    (VdErr (EIpv6Exts w),
     BitFields.Model.Ipv6Header_to_bytes (v6_final h x t (len p))
     ++ fst (XM.write (fst (XM.set_next_headers x (tr_ip_number t))) (snd (XM.set_next_headers x (tr_ip_number t)))), []).
Proof.
  intros F WW. unfold ipv6_part. unfold v6_size in F.
  rewrite (ltb_false 65535 (XM.header_len x + tr_header_len t + len p)) by lia.
  cbv zeta. destruct (XM.write _ _) as [xb r]. cbn [fst snd] in *. subst r. reflexivity.
Qed.

Theorem bridge e c p : cfg_wf c = true ->
  let prog := IO.final_write_with_net (bcfg_of e c p) p in
  IO.wprog_bytes prog = snd (build_run e c p) /\
  IO.wprog_verdict prog = verdict_of (fst (build_run e c p)).
Proof.
  intros W. cbv zeta. destruct (cfg_wf_inv c W) as (WL & WV & WN & WT & WS).
  pose proof (link_part_run c WL) as RL. pose proof (vlan_parts_run c) as RV.
  pose proof (runs_w1 p) as RP.
  change (runs (IO.final_write_with_net (bcfg_of e c p) p) (snd (build_run e c p)) (verdict_of (fst (build_run e c p)))).
  unfold IO.final_write_with_net, build_run, bcfg_of.
  destruct (c_net c) as [h x|h x|a] eqn:EN; cbn [net_wf] in WN;
    cbn [IO.b_link IO.b_vlan IO.b_net IO.b_pre IO.b_mid IO.b_transport].
  - (* IPv4 *)
    apply andb_true_iff in WN. destruct WN as [WH WX].
    destruct (v4_max h <? v4_value x (c_transport c) (len p)) eqn:EF.
    + apply N.ltb_lt in EF. rewrite (ipv4_part_too_big e h x _ p WH EF).
      eapply runs_as.
      * eapply runs_seq; [exact RL|]. eapply runs_seq; [exact RV|].
        eapply runs_stop; [eapply runs_stop; [apply runs_ret|discriminate]|discriminate].
      * cbn [snd app]. rewrite ?app_nil_r, <- ?app_assoc. reflexivity.
      * reflexivity.
    + apply N.ltb_ge in EF.
      destruct (ipv4_part_fits e h x (c_transport c) p WH WX WT EF) as (hb & xb & EB & LH & EWR & LX & ->).
      rewrite EB. cbn [opt_bytes].
      destruct (snh4_facts x _ WX (tr_ip_number_lt _ WT)) as (V1 & _ & _).
      pose proof (x4_bridge _ (snd (XM.set_next_headers4 x (tr_ip_number (c_transport c)))) V1) as RX.
      rewrite EWR in RX. cbn [fst snd wverd] in RX.
      pose proof (part_run _ hb LH) as RH.
      destruct (Ipv4Proofs.wf_ip4_facts h WH) as (_ & _ & (LS & _ & LD & _) & _).
      destruct (is_icmpv6 (c_transport c)) eqn:EI.
      * destruct (c_transport c) as [n|sp dp|t|k|k]; try discriminate. cbn [tr_ipv4 tr_mid tr_part].
        eapply runs_as.
        -- eapply runs_seq; [exact RL|]. eapply runs_seq; [exact RV|].
           eapply runs_stop.
           { eapply runs_seq; [exact (runs_ret _)|]. eapply runs_seq; [exact RH|].
             eapply runs_seq; [exact RX|]. apply runs_ret. }
           discriminate.
        -- cbn [snd app]. rewrite ?app_nil_r, <- ?app_assoc. reflexivity.
        -- reflexivity.
      * destruct (v4_fits h x _ _ WH EF) as [B _].
        destruct (tr_ipv4_ok e _ _ (c_transport c) (as_u16 (8 + len p)) p LS LD WT EI B) as (tb & ET & LT).
        rewrite ET. cbn [tr_mid].
        assert (RT : runs (IO.opt_w (tr_part (c_transport c) (TOk tb))) tb IO.VOk).
        { apply tr_part_run; [exact LT|]. intros n0 En. rewrite En in ET. cbn in ET. injection ET as <-. reflexivity. }
        eapply runs_as.
        -- eapply runs_seq; [exact RL|]. eapply runs_seq; [exact RV|].
           eapply runs_seq; [|eapply runs_seq; [exact RT|exact RP]].
           eapply runs_seq; [exact (runs_ret _)|]. eapply runs_seq; [exact RH|].
           eapply runs_seq; [exact RX|]. apply runs_ret.
        -- cbn [snd app]. rewrite ?app_nil_r, <- ?app_assoc. reflexivity.
        -- reflexivity.
  - (* IPv6 *)
    apply andb_true_iff in WN. destruct WN as [WH WX].
    destruct (65535 <? v6_size x (c_transport c) (len p)) eqn:EF.
    + apply N.ltb_lt in EF. rewrite (ipv6_part_too_big e h x _ p EF).
      eapply runs_as.
      * eapply runs_seq; [exact RL|]. eapply runs_seq; [exact RV|].
        eapply runs_stop; [eapply runs_stop; [apply runs_ret|discriminate]|discriminate].
      * cbn [snd app]. rewrite ?app_nil_r, <- ?app_assoc. reflexivity.
      * reflexivity.
    + apply N.ltb_ge in EF.
      pose proof (ipv6_part_fits e h x (c_transport c) p WX WT EF) as PF. cbv zeta in PF.
      destruct (XP.set_next_headers_facts x _ WX (tr_ip_number_lt _ WT)) as (V1 & _ & _).
      pose proof (x6_bridge _ (snd (XM.set_next_headers x (tr_ip_number (c_transport c)))) V1) as RX.
      pose proof (part_run 40 _ (len_ip6_bytes (v6_final h x (c_transport c) (len p)) WH)) as RH.
      set (H6 := BitFields.Model.Ipv6Header_to_bytes (v6_final h x (c_transport c) (len p))) in *.
      destruct (XM.next_header _ _) as [n|w| |] eqn:ENH; try contradiction.
      * destruct PF as (xb & EWR & LX & ->).
        rewrite EWR in RX. cbn [fst snd wverd] in RX.
        destruct (ip6_wf_inv h WH) as (_ & _ & _ & (LS & _) & (LD & _)).
        assert (B : tr_header_len (c_transport c) + len p <= 65535) by (clear - EF; unfold v6_size in EF; lia).
        destruct (tr_ipv6_ok e _ _ (c_transport c) (as_u16 (8 + len p)) p LS LD WT B) as (tb & ET & LT).
        rewrite ET. cbn [tr_mid].
        assert (RT : runs (IO.opt_w (tr_part (c_transport c) (TOk tb))) tb IO.VOk).
        { apply tr_part_run; [exact LT|]. intros n0 En. rewrite En in ET. cbn in ET. injection ET as <-. reflexivity. }
        eapply runs_as.
        -- eapply runs_seq; [exact RL|]. eapply runs_seq; [exact RV|].
           eapply runs_seq; [|eapply runs_seq; [exact RT|exact RP]].
           eapply runs_seq; [exact (runs_ret _)|]. eapply runs_seq; [exact RH|].
           eapply runs_seq; [exact RX|]. apply runs_ret.
        -- cbn [snd app]. rewrite ?app_nil_r, <- ?app_assoc. reflexivity.
        -- reflexivity.
      * clear PF. pose proof (XP.write_iff_walk _ (snd (XM.set_next_headers x (tr_ip_number (c_transport c)))) V1) as WW.
        rewrite ENH in WW.
        rewrite (ipv6_part_err e h x (c_transport c) p w EF WW). fold H6.
        rewrite WW in RX. cbn [wverd] in RX.
        eapply runs_as.
        -- eapply runs_seq; [exact RL|]. eapply runs_seq; [exact RV|].
           eapply runs_stop.
           { eapply runs_seq; [exact (runs_ret _)|]. eapply runs_seq; [exact RH|].
             eapply runs_stop; [exact RX|discriminate]. }
           discriminate.
        -- cbn [snd app]. rewrite ?app_nil_r, <- ?app_assoc. reflexivity.
        -- reflexivity.
  - (* ARP *)
    eapply runs_as.
    + eapply runs_seq; [exact RL|]. eapply runs_seq; [exact RV|].
      eapply runs_seq; [exact (part_run _ _ (arp_bytes_len a WN))|].
      eapply runs_seq; [exact (runs_ret _)|]. exact RP.
    + cbn [snd app]. rewrite ?app_nil_r, <- ?app_assoc. reflexivity.
    + reflexivity.
Qed.

(* VecWriter (write_to_vec): every write_all succeeds and appends *)
Lemma run_vec p : forall v,
  IO.run_w IO.vec_write_all p v = (IO.ret_of (IO.wprog_verdict p), v ++ IO.wprog_bytes p).
Proof.
  induction p as [r|b k IH]; intros v; cbn [IO.run_w IO.wprog_verdict IO.wprog_bytes].
  - rewrite app_nil_r. reflexivity.
  - unfold IO.vec_write_all at 1. rewrite IH, <- app_assoc. reflexivity.
Qed.

(* For EVERY well-formed configuration and payload (error outcomes included), with
   (v, out) = build_run e c p -- the verdict and the bytes of this model:
     write_to_vec   appends exactly `out` and returns v;
     write          into a sink that fails at byte k: k >= |out| -> returns v, the sink got `out`;
                    k < |out| -> an Io error, the sink got the first k bytes of `out`;
     write_to_slice a buffer shorter than size() is refused untouched with Space(size());
                    otherwise returns v (Ok carries size()), the buffer starts with `out` and
                    everything behind it is untouched; on success |out| = size(). *)
Theorem three_sinks e c p : cfg_wf c = true ->
  let b := bcfg_of e c p in
  let out := snd (build_run e c p) in
  let v := verdict_of (fst (build_run e c p)) in
  let size := final_size c (len p) in
  IO.run_w IO.vec_write_all (IO.final_write_with_net b p) [] = (IO.ret_of v, out) /\
  (forall k chunk zero, 1 <= chunk ->
     let r := IO.builder_write b p (IOP.fresh_sink k chunk zero) in
     (len out <= k -> fst r = IO.ret_of v /\ IOS.fs_got (snd r) = out) /\
     (k < len out -> fst r = IO.RIo (if zero then IOS.KWriteZero else IOS.KOther) /\
                     IOS.fs_got (snd r) = take k out)) /\
  (forall buffer,
     (len buffer < size -> IO.final_write_to_slice b buffer p = (IO.BSpace size, buffer)) /\
     (size <= len buffer ->
        IO.final_write_to_slice b buffer p = (IOP.bres_of size v, out ++ drop (len out) buffer))) /\
  len out <= size /\ (v = IO.VOk -> len out = size).
Proof.
  intros W. cbv zeta. destruct (bridge e c p W) as (BB & BV). cbv zeta in BB, BV.
  pose proof (size_bridge e c p (len p) W) as SZ.
  split; [|split; [|split]].
  - rewrite run_vec, BB, BV. reflexivity.
  - intros k chunk zero HC. cbv zeta.
    destruct (IOP.builder_write_fault (bcfg_of e c p) p k chunk zero HC) as (F1 & F2 & _). cbv zeta in F1, F2.
    rewrite BB, BV in *. split.
    + intros H. exact (F2 H).
    + intros H. destruct (F1 H) as (A & B' & _). split; assumption.
  - intros buffer.
    destruct (IOP.final_write_to_slice_spec (bcfg_of e c p) buffer p (bcfg_of_wf e c p)) as (S1 & S2 & _).
    cbv zeta in S1, S2. rewrite SZ, BB, BV in *. split; assumption.
  - destruct (IOP.final_write_to_slice_spec (bcfg_of e c p) [] p (bcfg_of_wf e c p)) as (_ & _ & S3 & S4 & _).
    cbv zeta in S3, S4. rewrite SZ, BB, BV in *. split; assumption.
Qed.

(* the successful case in one line per sink: all three deliver `bs`; write_to_slice needs
   exactly size() = |bs| bytes *)
Corollary three_sinks_ok e c p bs : cfg_wf c = true -> build e c p = BOk bs ->
  let b := bcfg_of e c p in
  let size := final_size c (len p) in
  len bs = size /\
  IO.run_w IO.vec_write_all (IO.final_write_with_net b p) [] = (IO.ROk, bs) /\
  (forall k chunk zero, 1 <= chunk -> size <= k ->
     let r := IO.builder_write b p (IOP.fresh_sink k chunk zero) in fst r = IO.ROk /\ IOS.fs_got (snd r) = bs) /\
  (forall buffer,
     (len buffer < size -> IO.final_write_to_slice b buffer p = (IO.BSpace size, buffer)) /\
     (size <= len buffer -> IO.final_write_to_slice b buffer p = (IO.BOk size, bs ++ drop size buffer))).
Proof.
  intros W E. cbv zeta. pose proof (build_size e c p bs W E) as LS.
  destruct (three_sinks e c p W) as (T1 & T2 & T3 & _). cbv zeta in T1, T2, T3.
  unfold build in E. destruct (build_run e c p) as [[|er|s] out]; try discriminate. injection E as ->.
  cbn [fst snd verdict_of IO.ret_of IOP.bres_of] in *.
  split; [exact LS|]. split; [exact T1|]. split.
  - intros k chunk zero HC HK. destruct (T2 k chunk zero HC) as (A & _). apply A. rewrite LS. exact HK.
  - intros buffer. destruct (T3 buffer) as (A & B'). split; [exact A|]. rewrite LS in B'. exact B'.
Qed.

(* Builder.Model.write_to_slice (the abstract of write_to_slice in Model.v: result value only)
   is the result component of C16's final_write_to_slice on the bridged configuration *)
Definition sres_of (r : IO.bres) (c : cfg) (e : endian) (p : bytes) : sres :=
  match r with
  | IO.BOk n => SOk n
  | IO.BSpace n => SSpace n
  | IO.BContent _ => match fst (build_run e c p) with VdErr er => SErr er | _ => SPanic 0 end
  | IO.BPanic | IO.BFuel => SPanic 0
  end.

Theorem model_write_to_slice_is_c16 e c p buffer : cfg_wf c = true ->
  write_to_slice e c (len buffer) p = sres_of (fst (IO.final_write_to_slice (bcfg_of e c p) buffer p)) c e p.
Proof.
  intros W. destruct (three_sinks e c p W) as (_ & _ & T3 & _). cbv zeta in T3.
  destruct (T3 buffer) as (A & B'). unfold write_to_slice.
  destruct (len buffer <? final_size c (len p)) eqn:EL.
  - apply N.ltb_lt in EL. rewrite (A EL). reflexivity.
  - apply N.ltb_ge in EL. rewrite (B' EL). cbn [fst].
    pose proof (build_never_panics e c p) as NP. unfold build in NP. unfold sres_of.
    destruct (build_run e c p) as [[|er|s] out]; cbn [fst verdict_of IOP.bres_of]; try reflexivity.
    exfalso. eapply NP; [exact W|reflexivity].
Qed.
