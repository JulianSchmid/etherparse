(* Builder/ProofsEx.v -- property C10:
   (1) typed ICMP kinds: the crate's decoders (C08 models Icmpv4Header/Icmpv6Header
       ::from_slice / read) and the RFC-table decoders of C17 (CtlMsg/Spec.v) applied to the
       transport segment of a built packet return the CONFIGURED message type with all its
       fields, the stored checksum and exactly the payload -- for every Icmpv4Type /
       Icmpv6Type variant; the one payload-length side condition (ICMPv4 TimestampRequest /
       TimestampReply: the message is exactly 20 bytes, payload must be empty) is made
       explicit and its failure side is proved as well;
   (2) the cases `payload_admitted` excludes, as theorems: what the reference decoder DOES
       return there (link / VLAN / IP layers as configured, then its transport stage on the
       emitted bytes; the exact Len error for timestamp messages of the wrong size), and
       witnesses that the full parse-back equation fails there. *)
From EP Require Import Base.Bytes Checksum.Spec Checksum.Model Checksum.Proofs.
From EP Require Import Checksum.ProtoTypes Checksum.ProtoSpec.
From EP Require Import Roundtrip.Common Roundtrip.CommonProofs Roundtrip.LinkNetLemmas.
From EP Require Roundtrip.Spec Roundtrip.Tcp Roundtrip.TcpProofs Roundtrip.Ipv4 Roundtrip.Ipv4Proofs.
From EP Require CtlMsg.Spec CtlMsg.Model CtlMsg.Proofs.
From EP Require Roundtrip.Icmp4 Roundtrip.Icmp4Proofs Roundtrip.Icmp6 Roundtrip.Icmp6Proofs.
From EP Require ExtChain.Spec ExtChain.Model ExtChain.View ExtChain.Proofs BitFields.Model.
From EP Require Import Parse.Types Parse.View Parse.WireSpec.
From EP Require Import Builder.Model Builder.Spec Builder.Proofs Builder.ProofsCk Builder.SpecX Builder.ProofsTr
  Builder.ProofsNx Builder.ProofsWire Builder.ProofsPb.
From Coq Require Import ZArith Lia ZifyN ZifyBool.
Local Open Scope N_scope.

Lemma icmp4_segment e c p bs t : cfg_wf c = true -> build e c p = BOk bs ->
  c_transport c = TrIcmpv4 t -> (forall a, c_net c <> NtArp a) ->
  exists ck, ck < 65536 /\
    Icmp4.icmp4_to_bytes {| Icmp4.icmp4_type := t; Icmp4.icmp4_checksum := ck |}
      = Some (icmp4_wire (c09_icmp4 t) ck) /\
    drop (off_transport c) bs = icmp4_wire (c09_icmp4 t) ck ++ p.
Proof.
  intros WF E ET NA. pose proof (transport_is_rfc_layout e c p bs WF E) as TL.
  rewrite ET in TL. cbn [th_of icmp4_of option_map] in TL.
  destruct (c_net c) as [h x|h x|a]; [| |exfalso; exact (NA a eq_refl)];
    destruct TL as (ck & L & DR); exists ck; (split; [exact L|]);
    (split; [apply icmp4_to_bytes_wire|exact DR]).
Qed.

Lemma icmp6_segment e c p bs t : cfg_wf c = true -> build e c p = BOk bs ->
  c_transport c = TrIcmpv6 t -> (forall a, c_net c <> NtArp a) ->
  exists ck, ck < 65536 /\
    Icmp6.icmp6_to_bytes {| Icmp6.icmp6_type := t; Icmp6.icmp6_checksum := ck |}
      = Some (icmp6_wire (c09_icmp6 t) ck) /\
    drop (off_transport c) bs = icmp6_wire (c09_icmp6 t) ck ++ p /\ 8 + len p <= 65535.
Proof.
  intros WF E ET NA. pose proof (transport_is_rfc_layout e c p bs WF E) as TL.
  destruct (build_inv e c p bs WF E) as (nb & xb & tb & _ & P).
  pose proof (build_parts_fits e c p nb xb tb WF P NA) as BND.
  rewrite ET in TL, BND. cbn [th_of icmp6_of option_map tr_header_len] in TL, BND. rewrite (icmp6_hl t) in BND.
  destruct (c_net c) as [h x|h x|a]; [| |exfalso; exact (NA a eq_refl)];
    destruct TL as (ck & L & DR); exists ck; (split; [exact L|]);
    (split; [apply icmp6_to_bytes_wire|]); (split; [exact DR|exact BND]).
Qed.

(* every ICMPv4 kind.  wf_icmp4_type (C08): the ranges of the Rust field types, and a raw
   Unknown{type, code} does not name a typed kind (icmpv4_raw(8, 0, ..) decodes as EchoRequest
   -- the typed reading of the same bytes, which is what CtlMsg.Spec.icmp4 says for ANY bytes).
   Side condition: header_len = 8 (every kind but the two timestamp kinds) or empty payload. *)
Theorem icmp4_value_back e c p bs t : cfg_wf c = true -> build e c p = BOk bs ->
  c_transport c = TrIcmpv4 t -> (forall a, c_net c <> NtArp a) ->
  Icmp4.wf_icmp4_type t = true ->
  exists ck, ck < 65536 /\
    let seg := drop (off_transport c) bs in
    let h := {| Icmp4.icmp4_type := t; Icmp4.icmp4_checksum := ck |} in
    Icmp4.icmp4_read seg = Roundtrip.Common.Ok (h, p) /\
    (Icmp4.icmp4_type_header_len t = 8 \/ p = [] ->
     Icmp4.icmp4_from_slice seg = Roundtrip.Common.Ok (h, p) /\
     CtlMsg.Spec.icmp4 seg = CtlMsg.Spec.Ok (t, Icmp4.icmp4_type_header_len t, p) /\
     CtlMsg.Model.Icmpv4Slice.view seg = CtlMsg.Spec.Ok (t, Icmp4.icmp4_type_header_len t, p)).
Proof.
  intros WF E ET NA WT.
  destruct (icmp4_segment e c p bs t WF E ET NA) as (ck & L & EB & DR).
  exists ck. split; [exact L|]. cbv zeta. rewrite DR.
  assert (WH : Icmp4.wf_icmp4 {| Icmp4.icmp4_type := t; Icmp4.icmp4_checksum := ck |} = true).
  { unfold Icmp4.wf_icmp4. cbn [Icmp4.icmp4_type Icmp4.icmp4_checksum]. rewrite WT.
    apply N.ltb_lt in L. rewrite L. reflexivity. }
  destruct (Icmp4Proofs.icmp4_dec_enc _ WH) as (e' & EB' & _ & _ & RD & FS).
  rewrite EB in EB'. injection EB' as <-.
  split; [apply RD|]. intros SC.
  specialize (FS p SC). split; [exact FS|].
  pose proof (Icmp4Proofs.icmp4_from_slice_spec _ _ _ FS) as SP.
  unfold Icmp4.icmp4_header_len in SP. cbn [Icmp4.icmp4_type] in SP.
  split; [exact SP|]. rewrite CtlMsg.Proofs.icmp4_eq. exact SP.
Qed.

(* a message of a type with a fixed 20-octet format (RFC 792 timestamp / timestamp reply)
   and any other length is refused by the typed view and by the header decoder *)
Lemma fixed_message_wrong_size ty layer ctor b2 b3 b4 b5 b6 b7 r n :
  CtlMsg.Spec.lookup ty 0 CtlMsg.Spec.icmp4_fixed_table = Some (20, layer, ctor) ->
  let seg := ty :: 0 :: b2 :: b3 :: b4 :: b5 :: b6 :: b7 :: r in
  len seg = 20 + n -> 0 < n ->
  CtlMsg.Model.Icmpv4Slice.view seg =
    CtlMsg.Spec.ErrLen (CtlMsg.Spec.mkLenError 20 (20 + n) CtlMsg.Spec.LsSlice layer 0) /\
  Icmp4.icmp4_from_slice seg = Roundtrip.Common.Err Roundtrip.Common.ELen.
Proof.
  intros LK seg LL LP.
  assert (N8 : (20 + n <? 8) = false) by (apply N.ltb_ge; lia).
  assert (N20 : (20 + n =? 20) = false) by (apply N.eqb_neq; lia).
  split.
  - rewrite CtlMsg.Proofs.icmp4_eq. unfold CtlMsg.Spec.icmp4. rewrite LL, N8.
    change (CtlMsg.Spec.byte_at seg 0) with ty. change (CtlMsg.Spec.byte_at seg 1) with 0.
    rewrite LK. cbv beta iota. rewrite N20. reflexivity.
  - unfold Icmp4.icmp4_from_slice.
    pose proof (CtlMsg.Proofs.icmp4_cases ty 0 b2 b3 b4 b5 b6 b7 r) as C. cbv zeta in C. rewrite LK in C.
    destruct C as (_ & _ & Hf & _). fold seg in Hf. rewrite Hf, LL, N8, N20. reflexivity.
Qed.

(* the failure side of the side condition: a TimestampRequest / TimestampReply with a
   non-empty payload is a message of 20 + |payload| bytes with type 13 / 14 code 0 --
   the typed view refuses it (RFC 792: the message is exactly 20 octets) *)
Theorem icmp4_timestamp_payload_rejected e c p bs t : cfg_wf c = true -> build e c p = BOk bs ->
  c_transport c = TrIcmpv4 t -> (forall a, c_net c <> NtArp a) ->
  Icmp4.icmp4_type_header_len t = 20 -> p <> [] ->
  let seg := drop (off_transport c) bs in
  len seg = 20 + len p /\
  CtlMsg.Model.Icmpv4Slice.view seg =
    CtlMsg.Spec.ErrLen (CtlMsg.Spec.mkLenError 20 (20 + len p) CtlMsg.Spec.LsSlice
      (if fst (icmp4_tc t) =? 13 then CtlMsg.Spec.LIcmpv4Timestamp else CtlMsg.Spec.LIcmpv4TimestampReply) 0) /\
  Icmp4.icmp4_from_slice seg = Roundtrip.Common.Err Roundtrip.Common.ELen.
Proof.
  intros WF E ET NA HL NE. cbv zeta.
  destruct (icmp4_segment e c p bs t WF E ET NA) as (ck & L & EB & DR).
  rewrite DR.
  assert (LP : 0 < len p) by (destruct p; [contradiction|rewrite len_cons; lia]).
  destruct t as [ty cd b4 b5 b6 b7|id sq|d|rc g0 g1 g2 g3|id sq|tc|pp|m|m];
    cbn [Icmp4.icmp4_type_header_len] in HL; try discriminate HL.
  all: destruct m as [i s o r x];
    cbn [c09_icmp4 icmp4_wire icmp4_tc fst CtlMsg.Spec.ts_id CtlMsg.Spec.ts_seq CtlMsg.Spec.ts_originate
         CtlMsg.Spec.ts_receive CtlMsg.Spec.ts_transmit];
    unfold w16, w32, to_be16, to_be32; cbn [app];
    match goal with |- len ?l = _ /\ _ =>
      assert (LL : len l = 20 + len p) by (rewrite !len_cons; lia) end;
    (split; [exact LL|]);
    (eapply fixed_message_wrong_size; [reflexivity|exact LL|exact LP]).
Qed.

(* every ICMPv6 kind, every payload (the IPv6 payload length bounds the message far below
   the 2^32-1 limit of Icmpv6Slice::from_slice): no side condition *)
Theorem icmp6_value_back e c p bs t : cfg_wf c = true -> build e c p = BOk bs ->
  c_transport c = TrIcmpv6 t -> (forall a, c_net c <> NtArp a) ->
  Icmp6.wf_icmp6_type t = true ->
  exists ck, ck < 65536 /\
    let seg := drop (off_transport c) bs in
    let h := {| Icmp6.icmp6_type := t; Icmp6.icmp6_checksum := ck |} in
    Icmp6.icmp6_read seg = Roundtrip.Common.Ok (h, p) /\
    Icmp6.icmp6_from_slice seg = Roundtrip.Common.Ok (h, p) /\
    CtlMsg.Spec.icmp6 seg = CtlMsg.Spec.Ok (t, p) /\
    CtlMsg.Model.Icmpv6Slice.view seg = CtlMsg.Spec.Ok (t, p).
Proof.
  intros WF E ET NA WT.
  destruct (icmp6_segment e c p bs t WF E ET NA) as (ck & L & EB & DR & BND).
  exists ck. split; [exact L|]. cbv zeta. rewrite DR.
  assert (WH : Icmp6.wf_icmp6 {| Icmp6.icmp6_type := t; Icmp6.icmp6_checksum := ck |} = true).
  { unfold Icmp6.wf_icmp6. cbn [Icmp6.icmp6_type Icmp6.icmp6_checksum]. rewrite WT.
    apply N.ltb_lt in L. rewrite L. reflexivity. }
  destruct (Icmp6Proofs.icmp6_dec_enc _ WH) as (e' & EB' & _ & _ & RD & FS).
  rewrite EB in EB'. injection EB' as <-.
  split; [apply RD|].
  assert (FS' := FS p ltac:(clear - BND; lia)). split; [exact FS'|].
  pose proof (Icmp6Proofs.icmp6_from_slice_spec _ _ _ FS') as SP. cbn [Icmp6.icmp6_type] in SP.
  split; [exact SP|]. rewrite CtlMsg.Proofs.icmp6_eq. exact SP.
Qed.

Lemma wire_net_ip4 bs pk src pos lim : wire_net bs pk 2048 src pos lim = wire_ipv4 bs pk src pos lim.
Proof. reflexivity. Qed.
Lemma wire_net_ip6 bs pk src pos lim : wire_net bs pk 34525 src pos lim = wire_ipv6 bs pk src pos lim.
Proof. reflexivity. Qed.

Theorem parse_back_upto_ip e c p bs : cfg_wf c = true -> build e c p = BOk bs ->
  match c_net c with
  | NtIpv4 h _ =>
      wire_entry c bs = wire_ipv4_tail bs (link_view c (len bs)) (off_net c) (Ipv4.ip4_header_len h) (len bs)
  | NtIpv6 _ _ =>
      wire_entry c bs = wire_ipv6_tail bs (link_view c (len bs)) LsIpv6HeaderPayloadLen LsIpv6HeaderPayloadLen
                                       (off_net c) (len bs)
  | NtArp _ => wire_entry c bs = VOk (expected_x c (len p))
  end.
Proof.
  intros WF E. pose proof (link_back e c p bs WF E) as LB.
  destruct (c_net c) as [h x|h x|a] eqn:EN.
  - destruct (ip_gen_ipv4 e c p bs h x WF E EN (link_view c (len bs)) LsSlice) as (E1 & E2).
    rewrite LB. cbn [net_ether_type]. rewrite wire_net_ip4. destruct (c_link c); assumption.
  - destruct (ip_gen_ipv6 e c p bs h x WF E EN (link_view c (len bs)) LsSlice) as (E1 & E2).
    rewrite LB. cbn [net_ether_type]. rewrite wire_net_ip6. destruct (c_link c); assumption.
  - apply (parse_back e c p bs WF); [|exact E]. unfold payload_admitted. rewrite EN. reflexivity.
Qed.

(* ---- up to the transport position: needs only that the announced number is not read as
   a further extension header (chain_ok) *)
Theorem parse_back_upto_transport e c p bs : cfg_wf c = true -> build e c p = BOk bs -> chain_ok c = true ->
  match c_net c with
  | NtArp _ => True
  | _ =>
    off_transport c + tr_header_len (c_transport c) + len p = len bs /\
    wire_entry c bs =
      wire_transport bs (upto_net c (len p)) (tr_ip_number (c_transport c)) (is_fragmented_x c) (ip_len_src c)
                     (off_transport c) (len bs)
  end.
Proof.
  intros WF E CO. pose proof (parse_back_upto_ip e c p bs WF E) as UI.
  pose proof (build_size e c p bs WF E) as SZ.
  unfold chain_ok in CO. unfold upto_net, is_fragmented_x, ip_len_src. cbv zeta. rewrite <- SZ.
  destruct (c_net c) as [h x|h x|a] eqn:EN; [| |exact I].
  - split; [apply (seg_len e c p bs WF E); intros a; rewrite EN; discriminate|].
    rewrite UI. apply negb_true_iff, N.eqb_neq in CO.
    rewrite (net_gen_ipv4 e c p bs h x WF E EN CO). reflexivity.
  - split; [apply (seg_len e c p bs WF E); intros a; rewrite EN; discriminate|].
    rewrite UI.
    assert (CP : chain_pre c = true) by (unfold chain_pre; rewrite EN; exact CO).
    rewrite (net_gen_ipv6 e c p bs h x WF E EN CP). reflexivity.
Qed.

(* ---- ICMPv4 timestamp / timestamp reply of the wrong size: the decoder's answer.
   Covers the typed TimestampRequest / TimestampReply with ANY non-empty payload and the raw
   Unknown{13|14, 0, ..} with a payload other than 12 bytes. *)
Theorem timestamp_wrong_size_rejected e c p bs t : cfg_wf c = true -> build e c p = BOk bs ->
  c_transport c = TrIcmpv4 t -> (forall a, c_net c <> NtArp a) ->
  is_fragmented_x c = false -> icmp4_admits t (len p) = false ->
  wire_entry c bs =
    cut 20 (Icmp4.icmp4_type_header_len t + len p) (ip_len_src c) (ts_layer t) (off_transport c).
Proof.
  intros WF E ET NA NF AD.
  assert (CO : chain_ok c = true).
  { unfold chain_ok. rewrite ET. cbn [tr_ip_number]. destruct (c_net c); reflexivity. }
  pose proof (parse_back_upto_transport e c p bs WF E CO) as UT.
  destruct (icmp4_segment e c p bs t WF E ET NA) as (ck & _ & _ & DR).
  destruct (icmp4_fields t ck p) as [T0 T1]. rewrite <- DR in T0, T1. rewrite B_drop in T0, T1.
  rewrite N.add_0_r in T0.
  assert (UT' : off_transport c + Icmp4.icmp4_type_header_len t + len p = len bs /\
                wire_entry c bs = wire_transport bs (upto_net c (len p)) 1 false (ip_len_src c)
                                                 (off_transport c) (len bs)).
  { rewrite ET, NF in UT. cbn [tr_header_len tr_ip_number] in UT.
    destruct (c_net c) as [h x|h x|a]; [exact UT|exact UT|exfalso; exact (NA a eq_refl)]. }
  destruct UT' as (LB & ->).
  unfold wire_transport. change (1 =? 1) with true. cbv iota.
  unfold wire_icmp4. cbv zeta. rewrite T0, T1.
  pose proof (icmp4_hl_bounds t) as HB.
  replace (len bs - off_transport c) with (Icmp4.icmp4_type_header_len t + len p) by (clear - LB; lia).
  rewrite (ltb_false (Icmp4.icmp4_type_header_len t + len p) 8) by lia.
  unfold icmp4_admits in AD. unfold ts_layer.
  destruct (fst (icmp4_tc t) =? 13) eqn:E13; destruct (fst (icmp4_tc t) =? 14) eqn:E14;
    destruct (snd (icmp4_tc t) =? 0) eqn:E0; cbn [andb orb] in AD; try discriminate AD;
    rewrite AD; reflexivity.
Qed.

(* witnesses (vm_compute): for every excluded ip number a well-formed configuration that builds
   and whose packet the reference decoder does NOT read back as the configured view *)
Definition wit_ip4 : Ipv4.Ipv4Header :=
  {| Ipv4.i4_dscp := 0; Ipv4.i4_ecn := 0; Ipv4.i4_total_len := 0; Ipv4.i4_identification := 0;
     Ipv4.i4_dont_fragment := true; Ipv4.i4_more_fragments := false; Ipv4.i4_fragment_offset := 0;
     Ipv4.i4_time_to_live := 20; Ipv4.i4_protocol := 255; Ipv4.i4_header_checksum := 0;
     Ipv4.i4_source := [192; 168; 1; 1]; Ipv4.i4_destination := [192; 168; 1; 2];
     Ipv4.i4_options := {| Ipv4.i4o_len := 0; Ipv4.i4o_buf := repeat 0 40 |} |}.
Definition wit_ip6 : BitFields.Model.Ipv6Header :=
  BitFields.Model.mkIpv6 0 0 0 0 64 [32;1;13;184;0;0;0;0;0;0;0;0;0;0;0;1] [254;128;0;0;0;0;0;0;2;0;0;255;254;0;0;9].
Definition wit_cfg4 (t : transport_cfg) : cfg :=
  mkCfg (LkEthernet2 [1; 2; 3; 4; 5; 6] [7; 8; 9; 10; 11; 12]) (VlSingle (BitFields.Model.mkVlan 0 false 5 0))
        (NtIpv4 wit_ip4 (XM.mkExts4 None)) t.
Definition wit_cfg6 (t : transport_cfg) : cfg :=
  mkCfg LkNone VlNone (NtIpv6 wit_ip6 XM.exts6_default) t.
Definition wit_payload : bytes := [1; 2; 3].

(* "wf, not admitted, builds, and the decoder's answer differs from the configured view" *)
Definition refutes (c : cfg) (p : bytes) : Prop :=
  cfg_wf c = true /\ payload_admitted c (len p) = false /\
  match build LE c p with
  | BOk bs => wire_entry c bs <> VOk (expected_x c (len p))
  | _ => False
  end.

Lemma parse_back_refuted_raw4 :
  Forall (fun n => refutes (wit_cfg4 (TrNone n)) wit_payload) [1; 6; 17; 58; 51].
Proof. repeat constructor; vm_compute; discriminate. Qed.

Lemma parse_back_refuted_raw6 :
  Forall (fun n => refutes (wit_cfg6 (TrNone n)) wit_payload) [1; 6; 17; 58; 51; 0; 43; 44; 60].
Proof. repeat constructor; vm_compute; discriminate. Qed.

Definition wit_ts : CtlMsg.Spec.TimestampMessage := CtlMsg.Spec.mkTimestamp 1 2 3 4 5.
Lemma parse_back_refuted_timestamp :
  refutes (wit_cfg4 (TrIcmpv4 (CtlMsg.Spec.V4TimestampRequest wit_ts))) wit_payload /\
  refutes (wit_cfg4 (TrIcmpv4 (CtlMsg.Spec.V4TimestampReply wit_ts))) [9] /\
  refutes (wit_cfg4 (TrIcmpv4 (CtlMsg.Spec.V4Unknown 13 0 0 1 0 2))) wit_payload /\
  refutes (wit_cfg6 (TrIcmpv4 (CtlMsg.Spec.V4Unknown 14 0 0 1 0 2))) (repeat 7 13).
Proof. repeat split; vm_compute; discriminate. Qed.
