(* Builder/ProofsWire.v -- property C10: sufficient conditions under which the wire
   reference decoder of C03 (Parse/WireSpec.v) accepts a layer, stated about the bytes
   of an arbitrary buffer at absolute positions.  Nothing here mentions the builder. *)
From EP Require Import Base.Bytes Parse.Types Parse.View Parse.WireSpec.
From EP Require ExtChain.Spec.
From EP Require Import Roundtrip.LinkNetLemmas.
From EP Require Import Builder.Model Builder.Spec Builder.SpecX.
From Coq Require Import ZArith Lia ZifyN ZifyBool.
Local Open Scope N_scope.

Module XS := EP.ExtChain.Spec.

Section Accept.
  Variable bs : bytes.

  (* ---------------------------------------------------------------- transport *)
  Lemma wire_udp_ok pk src pos lim : 8 <= lim - pos -> W bs (pos + 4) = lim - pos ->
    wire_udp bs pk src pos lim = VOk (with_tr pk (VUdp (pos, lim - pos))).
  Proof.
    intros H1 H2. unfold wire_udp. cbv zeta. rewrite H2.
    set (a := lim - pos) in *. clearbody a.
    rewrite (ltb_false a 8) by lia.
    rewrite (ltb_false a a) by lia.
    replace (a =? 0) with false by (symmetry; apply N.eqb_neq; lia).
    reflexivity.
  Qed.

  Lemma wire_tcp_ok pk src pos lim hl : 20 <= hl -> hl <= lim - pos -> B bs (pos + 12) / 16 * 4 = hl ->
    wire_tcp bs pk src pos lim = VOk (with_tr pk (VTcp hl (pos, lim - pos))).
  Proof.
    intros H1 H2 H3. unfold wire_tcp. cbv zeta.
    set (a := lim - pos) in *. clearbody a. set (d := B bs (pos + 12) / 16) in *. clearbody d.
    rewrite (ltb_false a 20) by lia.
    rewrite (ltb_false d 5) by lia.
    rewrite (ltb_false a (d * 4)) by lia.
    rewrite H3. reflexivity.
  Qed.

  (* RFC 792: timestamp / timestamp reply messages are exactly 20 bytes *)
  Lemma wire_icmp4_ok pk src pos lim : 8 <= lim - pos ->
    (((B bs pos =? 13) || (B bs pos =? 14)) && (B bs (pos + 1) =? 0) = true -> lim - pos = 20) ->
    wire_icmp4 bs pk src pos lim = VOk (with_tr pk (VIcmpv4 (pos, lim - pos))).
  Proof.
    intros H1 H2. unfold wire_icmp4. cbv zeta.
    set (a := lim - pos) in *. clearbody a.
    rewrite (ltb_false a 8) by lia.
    destruct (B bs pos =? 13) eqn:E13; destruct (B bs pos =? 14) eqn:E14;
      destruct (B bs (pos + 1) =? 0) eqn:E0; cbn [andb orb negb] in *; try reflexivity;
      rewrite (H2 eq_refl); reflexivity.
  Qed.

  Lemma wire_icmp6_ok pk src pos lim : 8 <= lim - pos -> lim - pos <= 4294967295 ->
    wire_icmp6 pk src pos lim = VOk (with_tr pk (VIcmpv6 (pos, lim - pos))).
  Proof.
    intros H1 H2. unfold wire_icmp6. cbv zeta.
    set (a := lim - pos) in *. clearbody a.
    rewrite (ltb_false a 8) by lia.
    rewrite (ltb_false 4294967295 a) by lia.
    reflexivity.
  Qed.

  (* ---------------------------------------------------------------- authentication header *)
  Lemma wire_ah_ok zero src pos lim hl : pos + hl <= lim ->
    ext_hdr_at (B bs) pos XS.KAuth hl false ->
    wire_ah bs zero src pos lim = AhOk hl (B bs pos).
  Proof.
    intros H1 (H2 & H3 & H4 & _). unfold wire_ah. cbv zeta.
    rewrite (ltb_false (lim - pos) 12) by lia.
    replace (B bs (pos + 1) =? 0) with false by (symmetry; apply N.eqb_neq; exact H2).
    rewrite H3.
    rewrite (ltb_false (lim - pos) hl) by lia.
    reflexivity.
  Qed.

  (* ---------------------------------------------------------------- IPv6 extension chain *)
  Definition sum_len (l : list (XS.ext_kind * (N * bool))) : N :=
    fold_right (fun e a => fst (snd e) + a) 0 l.
  Definition any_frag (l : list (XS.ext_kind * (N * bool))) : bool :=
    existsb (fun e => snd (snd e)) l.
  Definition not_hop (k : XS.ext_kind) : bool := match k with XS.KHopByHop => false | _ => true end.
  Definition no_hop (l : list (XS.ext_kind * (N * bool))) : bool := forallb (fun e => not_hop (fst e)) l.
  Definition final_number (n : N) : Prop := n <> 0 /\ n <> 60 /\ n <> 43 /\ n <> 44 /\ n <> 51.

  Lemma wire_chain_ok src lim l : forall fuel pos first frag last,
    chain_full (B bs) pos first l last -> no_hop l = true -> final_number last ->
    pos + sum_len l <= lim -> (length l < fuel)%nat ->
    wire_chain bs fuel src pos lim first frag = ChOk (pos + sum_len l) last (frag || any_frag l).
  Proof.
    induction l as [|[k [hl fr]] r IH]; intros fuel pos first frag last CH NH FN LE FU.
    - cbn [chain_full] in CH. subst first. destruct FN as (F0 & F60 & F43 & F44 & F51).
      destruct fuel as [|f]; [cbn in FU; lia|]. cbn [wire_chain sum_len fold_right any_frag existsb].
      cbv zeta.
      replace (last =? 0) with false by (symmetry; apply N.eqb_neq; exact F0).
      replace (last =? 60) with false by (symmetry; apply N.eqb_neq; exact F60).
      replace (last =? 43) with false by (symmetry; apply N.eqb_neq; exact F43).
      replace (last =? 44) with false by (symmetry; apply N.eqb_neq; exact F44).
      replace (last =? 51) with false by (symmetry; apply N.eqb_neq; exact F51).
      cbn [orb]. rewrite N.add_0_r, orb_false_r. reflexivity.
    - cbn [chain_full] in CH. destruct CH as (E1 & HA & CH).
      cbn [no_hop forallb fst] in NH. apply andb_true_iff in NH. destruct NH as [NK NH].
      cbn [sum_len fold_right fst snd] in LE |- *. fold (sum_len r) in LE |- *.
      cbn [any_frag existsb snd]. fold (any_frag r).
      destruct fuel as [|f]; [cbn in FU; lia|]. cbn [length] in FU.
      assert (FU' : (length r < f)%nat) by lia.
      specialize (IH f (pos + hl) (B bs pos)).
      subst first.
      (* options and routing headers: the length octet counts 8-octet units beyond the first *)
      assert (RAW : (XS.ip_number_of k =? 0) = false ->
                    ((XS.ip_number_of k =? 60) || (XS.ip_number_of k =? 43)) = true ->
                    (B bs (pos + 1) + 1) * 8 = hl /\ 8 <= hl /\ fr = false ->
                    wire_chain bs (S f) src pos lim (XS.ip_number_of k) frag
                    = ChOk (pos + (hl + sum_len r)) last (frag || (fr || any_frag r))).
      { intros E0 E6 (HL & H8 & ->). cbn [wire_chain]. cbv zeta. rewrite E0, E6. cbv iota.
        rewrite (ltb_false (lim - pos) 8) by lia.
        rewrite HL. rewrite (ltb_false (lim - pos) hl) by lia.
        rewrite (IH frag last CH NH FN) by (try exact FU'; lia).
        rewrite N.add_assoc. reflexivity. }
      destruct k; cbn [not_hop] in NK; try discriminate; cbn [XS.ip_number_of ext_hdr_at] in *.
      + exact (RAW eq_refl eq_refl HA).
      + exact (RAW eq_refl eq_refl HA).
      + (* fragment *)
        destruct HA as (-> & HF). cbn [wire_chain]. cbv zeta.
        change (44 =? 0) with false. change ((44 =? 60) || (44 =? 43)) with false. change (44 =? 44) with true.
        cbv iota.
        rewrite (ltb_false (lim - pos) 8) by lia.
        unfold W. rewrite HF.
        rewrite (IH (frag || fr) last CH NH FN) by (try exact FU'; lia).
        rewrite N.add_assoc, orb_assoc. reflexivity.
      + (* authentication *)
        pose proof HA as (_ & _ & _ & ->). cbn [wire_chain]. cbv zeta.
        change (51 =? 0) with false. change ((51 =? 60) || (51 =? 43)) with false. change (51 =? 44) with false.
        change (51 =? 51) with true. cbv iota.
        rewrite (wire_ah_ok CeIpv6AuthZeroPayloadLen src pos lim hl) by (try exact HA; lia).
        rewrite (IH frag last CH NH FN) by (try exact FU'; lia).
        rewrite N.add_assoc. reflexivity.
      + exact (RAW eq_refl eq_refl HA).
  Qed.

  (* a chain whose only hop-by-hop header (if any) is the first one *)
  Definition hop_first (l : list (XS.ext_kind * (N * bool))) : bool :=
    match l with
    | [] => true
    | (_, _) :: r => no_hop r
    end.

  Lemma wire_exts_ok src lim l fuel pos first last :
    chain_full (B bs) pos first l last -> hop_first l = true -> final_number last ->
    pos + sum_len l <= lim -> (length l < fuel)%nat ->
    wire_exts bs fuel src pos lim first = ChOk (pos + sum_len l) last (any_frag l).
  Proof.
    intros CH HF FN LE FU. unfold wire_exts.
    destruct l as [|[k [hl fr]] r].
    - cbn [chain_full] in CH. subst first. pose proof FN as (F0 & _).
      replace (last =? 0) with false by (symmetry; apply N.eqb_neq; exact F0).
      apply (wire_chain_ok src lim [] fuel pos last false last); try assumption; reflexivity.
    - cbn [hop_first] in HF. destruct (not_hop k) eqn:NK.
      + (* any other first header: the walk from its number *)
        pose proof CH as (E & _). subst first.
        assert (Z : (XS.ip_number_of k =? 0) = false) by (destruct k; try discriminate NK; reflexivity).
        rewrite Z. cbv iota.
        apply (wire_chain_ok src lim _ fuel pos _ false last CH); [|assumption..].
        cbn [no_hop forallb fst]. rewrite NK. exact HF.
      + (* hop-by-hop first *)
        destruct k; try discriminate NK.
        cbn [chain_full XS.ip_number_of ext_hdr_at] in CH. destruct CH as (-> & (HL & H8 & ->) & CH).
        cbn [sum_len fold_right fst snd] in LE |- *. fold (sum_len r) in LE |- *.
        cbn [any_frag existsb snd orb]. fold (any_frag r).
        change (0 =? 0) with true. cbv iota zeta.
        rewrite (ltb_false (lim - pos) 8) by lia.
        rewrite HL. rewrite (ltb_false (lim - pos) hl) by lia.
        cbn [length] in FU.
        rewrite (wire_chain_ok src lim r fuel (pos + hl) (B bs pos) false last CH HF FN) by lia.
        rewrite N.add_assoc. reflexivity.
  Qed.

  (* every header of a chain has at least one byte: the fuel of the decoder suffices *)
  Lemma chain_len_le Bf l : forall pos first last, chain_full Bf pos first l last ->
    (length l <= N.to_nat (sum_len l))%nat.
  Proof.
    induction l as [|[k [hl fr]] r IH]; intros pos first last CH; [cbn; lia|].
    cbn [chain_full] in CH. destruct CH as (_ & HA & CH). specialize (IH _ _ _ CH).
    cbn [sum_len fold_right fst snd length]. fold (sum_len r).
    assert (1 <= hl) by (destruct k; cbn [ext_hdr_at] in HA; lia). lia.
  Qed.

  (* ---------------------------------------------------------------- transport dispatch *)
  Lemma wire_transport_frag pk ipn src pos lim : wire_transport bs pk ipn true src pos lim = VOk pk.
  Proof. reflexivity. Qed.

  Lemma wire_transport_other pk ipn src pos lim :
    ipn <> 1 -> ipn <> 17 -> ipn <> 6 -> ipn <> 58 -> wire_transport bs pk ipn false src pos lim = VOk pk.
  Proof.
    intros H1 H2 H3 H4. unfold wire_transport.
    replace (ipn =? 1) with false by (symmetry; apply N.eqb_neq; exact H1).
    replace (ipn =? 17) with false by (symmetry; apply N.eqb_neq; exact H2).
    replace (ipn =? 6) with false by (symmetry; apply N.eqb_neq; exact H3).
    replace (ipn =? 58) with false by (symmetry; apply N.eqb_neq; exact H4). reflexivity.
  Qed.

  (* ---------------------------------------------------------------- IPv4 *)
  Lemma ihl_facts ol : ol <= 40 -> ol mod 4 = 0 ->
    (64 + (5 + ol / 4)) / 16 = 4 /\ ((64 + (5 + ol / 4)) mod 16) * 4 = 20 + ol /\ 5 <= (64 + (5 + ol / 4)) mod 16.
  Proof. intros H1 H2. zify; Z.div_mod_to_equations; lia. Qed.

  Lemma wire_ipv4_body_ok pk src pos lim hl : 20 <= hl -> hl <= lim - pos -> W bs (pos + 2) = lim - pos ->
    wire_ipv4_body bs pk src pos lim hl = wire_ipv4_tail bs pk pos hl lim.
  Proof.
    intros H0 H1 H2. unfold wire_ipv4_body. cbv zeta. rewrite H2.
    rewrite (ltb_false (lim - pos) hl) by lia.
    rewrite (ltb_false (lim - pos) (lim - pos)) by lia.
    replace (pos + (lim - pos)) with lim by lia. reflexivity.
  Qed.

  Lemma wire_ipv4_ok pk src pos lim ol : ol <= 40 -> ol mod 4 = 0 ->
    B bs pos = 64 + (5 + ol / 4) -> 20 + ol <= lim - pos -> W bs (pos + 2) = lim - pos ->
    wire_ipv4 bs pk src pos lim = wire_ipv4_tail bs pk pos (20 + ol) lim /\
    wire_ip bs pk src pos lim = wire_ipv4_tail bs pk pos (20 + ol) lim.
  Proof.
    intros H1 H2 H3 H4 H5. destruct (ihl_facts ol H1 H2) as (V & I & I5).
    unfold wire_ipv4, wire_ip. cbv zeta. rewrite H3, V, I.
    rewrite (ltb_false (lim - pos) 20) by lia.
    replace (lim - pos =? 0) with false by (symmetry; apply N.eqb_neq; lia).
    change (4 =? 4) with true. cbn [negb].
    replace ((64 + (5 + ol / 4)) mod 16 <? 5) with false by (symmetry; apply N.ltb_ge; exact I5).
    rewrite (ltb_false (lim - pos) (20 + ol)) by lia.
    cbv iota. split; apply wire_ipv4_body_ok; lia || assumption.
  Qed.

  Lemma wire_ipv4_tail_plain pk pos hl lim proto : B bs (pos + 9) = proto -> proto <> 51 ->
    wire_ipv4_tail bs pk pos hl lim =
      wire_transport bs
        (with_net pk (VIpv4 (pos, hl) None
           (mkVIp proto (ipv4_fragmented bs pos) LsIpv4HeaderTotalLen (pos + hl, lim - (pos + hl)))))
        proto (ipv4_fragmented bs pos) LsIpv4HeaderTotalLen (pos + hl) lim.
  Proof.
    intros H1 H2. unfold wire_ipv4_tail. cbv zeta. rewrite H1.
    replace (proto =? 51) with false by (symmetry; apply N.eqb_neq; exact H2). reflexivity.
  Qed.

  Lemma wire_ipv4_tail_auth pk pos hl lim ahl : B bs (pos + 9) = 51 -> pos + hl + ahl <= lim ->
    ext_hdr_at (B bs) (pos + hl) XS.KAuth ahl false ->
    wire_ipv4_tail bs pk pos hl lim =
      wire_transport bs
        (with_net pk (VIpv4 (pos, hl) (Some (pos + hl, ahl))
           (mkVIp (B bs (pos + hl)) (ipv4_fragmented bs pos) LsIpv4HeaderTotalLen
                  (pos + hl + ahl, lim - (pos + hl + ahl)))))
        (B bs (pos + hl)) (ipv4_fragmented bs pos) LsIpv4HeaderTotalLen (pos + hl + ahl) lim.
  Proof.
    intros H1 H2 H3. unfold wire_ipv4_tail. cbv zeta. rewrite H1. change (51 =? 51) with true. cbv iota.
    rewrite (wire_ah_ok CeAuthZeroPayloadLen LsIpv4HeaderTotalLen (pos + hl) lim ahl) by (try exact H3; lia).
    reflexivity.
  Qed.

  (* ---------------------------------------------------------------- IPv6 *)
  Lemma wire_ipv6_tail_ok pk esrc psrc pos lim l last :
    chain_full (B bs) (pos + 40) (B bs (pos + 6)) l last -> hop_first l = true -> final_number last ->
    pos + 40 + sum_len l <= lim ->
    wire_ipv6_tail bs pk esrc psrc pos lim =
      wire_transport bs
        (with_net pk (VIpv6 (pos, 40) (if sum_len l =? 0 then None else Some (B bs (pos + 6))) (any_frag l)
                        (pos + 40, sum_len l)
                        (mkVIp last (any_frag l) psrc (pos + 40 + sum_len l, lim - (pos + 40 + sum_len l)))))
        last (any_frag l) esrc (pos + 40 + sum_len l) lim.
  Proof.
    intros CH HF FN LE. unfold wire_ipv6_tail.
    pose proof (chain_len_le _ _ _ _ _ CH) as LL.
    rewrite (wire_exts_ok esrc lim l _ (pos + 40) (B bs (pos + 6)) last CH HF FN LE) by lia.
    replace (pos + 40 + sum_len l =? pos + 40) with (sum_len l =? 0).
    2:{ destruct (N.eqb_spec (sum_len l) 0) as [Z|Z]; symmetry; [apply N.eqb_eq|apply N.eqb_neq]; lia. }
    replace (pos + 40 + sum_len l - (pos + 40)) with (sum_len l) by lia. reflexivity.
  Qed.

  Lemma wire_ipv6_ok pk src pos lim : 40 <= lim - pos -> B bs pos / 16 = 6 -> W bs (pos + 4) = lim - pos - 40 ->
    wire_ipv6 bs pk src pos lim = wire_ipv6_tail bs pk LsIpv6HeaderPayloadLen LsIpv6HeaderPayloadLen pos lim /\
    wire_ip bs pk src pos lim = wire_ipv6_tail bs pk LsIpv6HeaderPayloadLen LsIpv6HeaderPayloadLen pos lim.
  Proof.
    intros H1 H2 H3.
    assert (BODY : wire_ipv6_body bs pk src pos lim
                   = wire_ipv6_tail bs pk LsIpv6HeaderPayloadLen LsIpv6HeaderPayloadLen pos lim).
    { unfold wire_ipv6_body. cbv zeta. rewrite H3.
      replace ((lim - pos - 40 =? 0) && (40 <? lim - pos)) with false.
      2:{ symmetry. apply andb_false_iff. destruct (N.eqb_spec (lim - pos - 40) 0) as [Z|Z]; [right|left; reflexivity].
          apply N.ltb_ge. lia. }
      rewrite (ltb_false (lim - pos) (40 + (lim - pos - 40))) by lia.
      replace (pos + 40 + (lim - pos - 40)) with lim by lia. reflexivity. }
    unfold wire_ipv6, wire_ip. cbv zeta. rewrite H2.
    rewrite (ltb_false (lim - pos) 40) by lia.
    replace (lim - pos =? 0) with false by (symmetry; apply N.eqb_neq; lia).
    change (6 =? 6) with true. change (6 =? 4) with false. cbn [negb]. cbv iota. split; exact BODY.
  Qed.

  (* ---------------------------------------------------------------- ARP *)
  Lemma wire_arp_ok pk src pos lim l : 8 <= l -> l <= lim - pos ->
    8 + B bs (pos + 4) * 2 + B bs (pos + 5) * 2 = l ->
    wire_arp bs pk src pos lim = VOk (with_net pk (VArp (pos, l))).
  Proof.
    intros H1 H2 H3. unfold wire_arp. cbv zeta. rewrite H3.
    rewrite (ltb_false (lim - pos) 8) by lia.
    rewrite (ltb_false (lim - pos) l) by lia. reflexivity.
  Qed.

  (* ---------------------------------------------------------------- link extensions *)
  Lemma wire_ether_vlan c pk et src pos lim : is_vlan et = true -> 4 <= lim - pos ->
    wire_ether bs (S c) pk et src pos lim =
      wire_ether bs c (with_ext pk (VVlan (pos, lim - pos))) (W bs (pos + 2)) src (pos + 4) lim.
  Proof.
    intros H1 H2. cbn [wire_ether]. cbv zeta. rewrite H1.
    rewrite (ltb_false (lim - pos) 4) by lia. reflexivity.
  Qed.

  Lemma wire_ether_net cap pk et src pos lim : is_vlan et = false -> et <> 35045 ->
    wire_ether bs cap pk et src pos lim = wire_net bs pk et src pos lim.
  Proof.
    intros H1 H2. destruct cap; cbn [wire_ether]; cbv zeta; rewrite H1;
      replace (et =? 35045) with false by (symmetry; apply N.eqb_neq; exact H2); reflexivity.
  Qed.
End Accept.
