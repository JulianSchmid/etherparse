(* Checksum/ProtoProofs.v -- every protocol checksum function of Proto.v
   computes the value ProtoSpec.v prescribes.  Each theorem is an instance of
   checksum64_rfc1071: the pieces are well formed, only the last piece may have
   odd length, and the big-endian word sum of the bytes fed equals the word sum
   of the RFC byte string (checksum field zero).  These three facts (`feeds`) are
   shown once per pseudo header and once per message body; a theorem is then the
   range check of its function and one application of proto_core_pre. *)
From EP Require Import Base.Bytes Base.Lists Gen.Consts Checksum.Spec Checksum.Model Checksum.Proofs
  Checksum.ProtoTypes Checksum.ProtoSpec Checksum.Proto.
From Coq Require Import ZArith Lia ZifyN ZifyBool.
Local Open Scope N_scope.

Lemma rfc1071_sum_eq a b : sum_be16 a = sum_be16 b -> rfc1071 a = rfc1071 b.
Proof. unfold rfc1071. now intros ->. Qed.

(* the pieces `ps` fed to Sum16BitWords stand for the RFC byte string `wire` *)
Record feeds (ps : list piece) (wire : bytes) : Prop := {
  feeds_ok : Forall piece_ok ps;
  feeds_aligned : pieces_aligned ps;
  feeds_sum : sum_be16 (pieces_bytes ps) = sum_be16 wire }.

(* the same for a leading part (a pseudo header): everything even, so that
   any `feeds` may follow *)
Record feeds_pre (ps : list piece) (wire : bytes) : Prop := {
  pre_ok : Forall piece_ok ps;
  pre_even : Forall (fun p => even_len (piece_bytes p)) ps;
  pre_wire_even : even_len wire;
  pre_sum : sum_be16 (pieces_bytes ps) = sum_be16 wire }.

Lemma proto_core e ps wire : feeds ps wire -> checksum64 e ps = rfc1071 wire.
Proof.
  intros [H1 H2 H3]. rewrite checksum64_rfc1071 by assumption. now apply rfc1071_sum_eq.
Qed.

Lemma proto_core_nz e ps wire :
  feeds ps wire -> checksum64_no_zero e ps = no_zero (rfc1071 wire).
Proof.
  intros [H1 H2 H3]. rewrite checksum64_no_zero_spec by assumption.
  rewrite (rfc1071_sum_eq _ _ H3). reflexivity.
Qed.

Lemma pieces_aligned_app ps qs :
  Forall (fun p => even_len (piece_bytes p)) ps -> pieces_aligned qs -> pieces_aligned (ps ++ qs).
Proof.
  induction ps as [|p r IH]; intros Hf Hq; [exact Hq|].
  inversion Hf as [|? ? Hp Hr]; subst. cbn [app].
  specialize (IH Hr Hq). destruct (r ++ qs) eqn:E.
  - exact I.
  - cbn [pieces_aligned]. split; assumption.
Qed.

Lemma pieces_bytes_app ps qs : pieces_bytes (ps ++ qs) = pieces_bytes ps ++ pieces_bytes qs.
Proof. unfold pieces_bytes. now rewrite map_app, concat_app. Qed.

Lemma even_len_pieces ps :
  Forall (fun p => even_len (piece_bytes p)) ps -> even_len (pieces_bytes ps).
Proof.
  induction 1 as [|p r Hp _ IH]; [reflexivity|].
  rewrite pieces_bytes_cons. now apply even_len_app.
Qed.

Lemma feeds_app pre rest wpre wrest :
  feeds_pre pre wpre -> feeds rest wrest -> feeds (pre ++ rest) (wpre ++ wrest).
Proof.
  intros [P1 P2 P3 P4] [R1 R2 R3]. split.
  - apply Forall_app. now split.
  - now apply pieces_aligned_app.
  - rewrite pieces_bytes_app. rewrite !sum_be16_app; [congruence | assumption |].
    now apply even_len_pieces.
Qed.

(* pseudo header pieces (even) followed by the rest *)
Lemma proto_core_pre e pre rest wpre wrest :
  feeds_pre pre wpre -> feeds rest wrest ->
  checksum64 e (pre ++ rest) = rfc1071 (wpre ++ wrest).
Proof. intros. now apply proto_core, feeds_app. Qed.

Lemma proto_core_pre_nz e pre rest wpre wrest :
  feeds_pre pre wpre -> feeds rest wrest ->
  checksum64_no_zero e (pre ++ rest) = no_zero (rfc1071 (wpre ++ wrest)).
Proof. intros. now apply proto_core_nz, feeds_app. Qed.

(* a test that holds at every point below n holds below n *)
Fixpoint upto (n : nat) : list N :=
  match n with O => [] | S k => N.of_nat k :: upto k end.

Lemma upto_in n x : x < N.of_nat n -> In x (upto n).
Proof.
  induction n as [|k IH]; intros H; [lia|].
  cbn [upto]. destruct (N.eq_dec x (N.of_nat k)) as [->|Hn]; [now left|].
  right. apply IH. lia.
Qed.

Lemma sweep1 n (f : N -> bool) :
  forallb f (upto n) = true -> forall x, x < N.of_nat n -> f x = true.
Proof. intros H x Hx. rewrite forallb_forall in H. apply H. now apply upto_in. Qed.

Lemma even_len_of_len (bs : bytes) k : len bs = 2 * k -> even_len bs.
Proof.
  unfold len, even_len. intros H. apply Nat.even_spec. exists (N.to_nat k). lia.
Qed.

Lemma even_len_mod4 (bs : bytes) : len bs mod 4 = 0 -> even_len bs.
Proof.
  intros H. apply even_len_of_len with (k := 2 * (len bs / 4)).
  pose proof (N.div_mod (len bs) 4 ltac:(lia)). lia.
Qed.

Lemma even_len_ip4 a : even_len (ip4_bytes a).
Proof. now destruct a as [[[? ?] ?] ?]. Qed.

Lemma even_len_ip6 (a : bytes) : ip6_ok a -> even_len a.
Proof. unfold even_len. now intros [_ ->]. Qed.

Lemma even_len_take16 (bs : bytes) : 16 <= len bs -> even_len (take 16 bs).
Proof.
  intros H. apply even_len_of_len with (k := 8). rewrite len_take.
  rewrite N.min_l by lia. reflexivity.
Qed.

Lemma even_len_drop18 (bs : bytes) : 18 <= len bs -> len bs mod 4 = 0 -> even_len (drop 18 bs).
Proof.
  intros H H4. apply even_len_of_len with (k := 2 * (len bs / 4) - 9). rewrite len_drop.
  pose proof (N.div_mod (len bs) 4 ltac:(lia)). lia.
Qed.

(* the pieces of Proto.v: their bytes are the fields of ProtoSpec.v *)
Lemma pb_P2w v : piece_bytes (P2w v) = w16 v.
Proof. reflexivity. Qed.
Lemma pb_P4w v : piece_bytes (P4w v) = w32 v.
Proof. reflexivity. Qed.
Lemma pb_P4a a : piece_bytes (P4a a) = ip4_bytes a.
Proof. now destruct a as [[[? ?] ?] ?]. Qed.

Lemma byte_mod x : x mod 256 < 256.
Proof. apply N.mod_lt. lia. Qed.

Lemma piece_ok_P2w v : piece_ok (P2w v).
Proof. apply piece_ok_P2; apply byte_mod. Qed.
Lemma piece_ok_P4w v : piece_ok (P4w v).
Proof. apply piece_ok_P4; apply byte_mod. Qed.
Lemma piece_ok_P4a a : ip4_ok a -> piece_ok (P4a a).
Proof. intros H. split; [now rewrite pb_P4a | now destruct a as [[[? ?] ?] ?]]. Qed.
Lemma piece_ok_P16 x : ip6_ok x -> piece_ok (P16 x).
Proof. exact (fun H => H). Qed.

Lemma bytes_ok_app_intro a b : bytes_ok a -> bytes_ok b -> bytes_ok (a ++ b).
Proof. intros. apply bytes_ok_app. now split. Qed.

Lemma even_P4a a : even_len (piece_bytes (P4a a)).
Proof. rewrite pb_P4a. apply even_len_ip4. Qed.

(* side conditions of the obligations below: a piece is well formed, a field is even *)
Create HintDb pieces discriminated.
#[local] Hint Resolve piece_ok_P2 piece_ok_P4 piece_ok_P2w piece_ok_P4w piece_ok_P4a piece_ok_P16
  piece_ok_PSlice bytes_ok_take bytes_ok_drop bytes_ok_app_intro byte_mod
  even_P4a even_len_ip4 even_len_ip6 even_len_mod4 even_len_take16 even_len_drop18 : pieces.
#[local] Hint Extern 1 (even_len _) => reflexivity : pieces.
#[local] Hint Extern 1 (_ < _) => lia : pieces.
#[local] Hint Extern 1 (_ <= _) => lia : pieces.

(* `Forall piece_ok` of an explicit list, piece by piece; what the hints do not
   settle is left *)
Ltac pieces_ok :=
  cbn [app]; repeat (apply Forall_cons; [auto with pieces|]); try apply Forall_nil.

Ltac aligned_goal :=
  cbn [app pieces_aligned piece_bytes]; repeat split; auto with pieces.

Ltac even_pieces := repeat (apply Forall_cons; [cbn [piece_bytes]; auto with pieces|]); apply Forall_nil.

(* bytes of an explicit piece list as an append of fields *)
Ltac fields :=
  rewrite ?pieces_bytes_app, ?pieces_bytes_cons; change (pieces_bytes []) with (@nil N);
  rewrite ?pb_P2w, ?pb_P4w, ?pb_P4a; cbn [piece_bytes].

(* word sum of an append of even parts = sum of the word sums, fields kept folded;
   with `be16` unfolded both sides of a goal are then linear in the octets, which
   is what the `lia` after `sums` decides *)
Ltac sums :=
  rewrite <- ?app_assoc;
  repeat first [ rewrite sum_be16_cons2
               | rewrite sum_be16_app by auto with pieces
               | rewrite app_nil_r ];
  cbn [sum_be16]; unfold be16.

Ltac zero16 := change (w16 0) with [0; 0] in *.

Lemma sum_w16 v : v < 65536 -> sum_be16 (w16 v) = v.
Proof. intros H. unfold w16, to_be16. cbn [sum_be16]. dmlia. Qed.

Lemma to_be32_small v : v < 65536 -> to_be32 v = [0; 0; (v / 256) mod 256; v mod 256].
Proof.
  intros H. unfold to_be32.
  rewrite (N.div_small v 16777216), (N.div_small v 65536) by lia. reflexivity.
Qed.

Lemma sum_w32_small v : v < 65536 -> sum_be16 (w32 v) = sum_be16 (w16 v).
Proof. intros H. unfold w32. now rewrite to_be32_small. Qed.

Lemma as_u16_small v : v < 65536 -> as_u16 v = v.
Proof. apply N.mod_small. Qed.
Lemma as_u32_small v : v < 4294967296 -> as_u32 v = v.
Proof. apply N.mod_small. Qed.

Lemma feeds_slice bs : bytes_ok bs -> feeds [PSlice bs] bs.
Proof.
  intros H. split; [pieces_ok | exact I | fields; now rewrite app_nil_r].
Qed.

Lemma pseudo4_feeds src dst pr l :
  ip4_ok src -> ip4_ok dst -> pr < 256 ->
  feeds_pre [P4a src; P4a dst; P2 0 pr; P2w l] (pseudo4 src dst pr l).
Proof.
  intros Hs Hd Hp. unfold pseudo4. split.
  - pieces_ok.
  - even_pieces.
  - repeat (apply even_len_app; [auto with pieces|]). reflexivity.
  - fields. now rewrite app_nil_r.
Qed.

Lemma even_pseudo6 src dst l nh : ip6_ok src -> ip6_ok dst -> even_len (pseudo6 src dst l nh).
Proof. intros Hs Hd. unfold pseudo6. repeat (apply even_len_app; [auto with pieces|]). reflexivity. Qed.

(* the crate feeds next header and length in either order, RFC 8200 has the
   length first *)
Lemma pseudo6_feeds src dst l nh :
  ip6_ok src -> ip6_ok dst -> nh < 256 ->
  feeds_pre [P16 src; P16 dst; P2 0 nh; P4w l] (pseudo6 src dst l nh).
Proof.
  intros Hs Hd Hn. split; [pieces_ok | even_pieces | now apply even_pseudo6 |].
  unfold pseudo6. fields. sums. lia.
Qed.

Lemma pseudo6_feeds_len_first src dst l nh :
  ip6_ok src -> ip6_ok dst -> nh < 256 ->
  feeds_pre [P16 src; P16 dst; P4w l; P2 0 nh] (pseudo6 src dst l nh).
Proof.
  intros Hs Hd Hn. split; [pieces_ok | even_pieces | now apply even_pseudo6 |].
  unfold pseudo6. fields. sums. lia.
Qed.

(* UDP: a 16 bit length *)
Lemma pseudo6_feeds_u16 src dst l nh :
  ip6_ok src -> ip6_ok dst -> nh < 256 -> l < 65536 ->
  feeds_pre [P16 src; P16 dst; P2 0 nh; P2w l] (pseudo6 src dst l nh).
Proof.
  intros Hs Hd Hn Hl. split; [pieces_ok | even_pieces | now apply even_pseudo6 |].
  unfold pseudo6. fields. sums. rewrite sum_w32_small by exact Hl. lia.
Qed.

Lemma lor64 x : x < 16 -> N.lor 64 x = 64 + x.
Proof. exact (lor_disjoint 4 x 4). Qed.

Lemma dscp_ecn_byte d c : d < 64 -> c < 4 ->
  N.lor (as_u8 (N.shiftl d 2)) c = d * 4 + c.
Proof.
  intros Hd Hc. rewrite N.shiftl_mul_pow2. unfold as_u8. change (2 ^ 2) with 4.
  rewrite N.mod_small by lia. exact (lor_disjoint d c 2 Hc).
Qed.

Lemma flags_frag_byte f x : f < 4 -> x < 32 ->
  N.lor (f * 32) (N.land x 31) = f * 32 + x.
Proof.
  intros Hf Hx. change 31 with (N.ones 5). rewrite N.land_ones, N.mod_small by exact Hx.
  exact (lor_disjoint f x 5 Hx).
Qed.

Lemma ipv4_flags_byte_val h : ipv4_flags_byte h = (bit (v4_df h) * 2 + bit (v4_mf h)) * 32.
Proof. unfold ipv4_flags_byte. destruct (v4_df h), (v4_mf h); reflexivity. Qed.

Lemma ipv4_ihl_val h : len (v4_options h) <= 40 -> ipv4_ihl_m h = ipv4_ihl h.
Proof.
  intros H. unfold ipv4_ihl_m, ipv4_ihl, as_u8.
  rewrite (N.mod_small (len (v4_options h))) by lia.
  assert (len (v4_options h) / 4 <= 10) by (apply N.div_le_upper_bound; lia).
  rewrite N.mod_small by lia. lia.
Qed.

Lemma ipv4_ihl_lt h : len (v4_options h) <= 40 -> ipv4_ihl h < 16.
Proof.
  intros H. unfold ipv4_ihl.
  assert (len (v4_options h) / 4 <= 10) by (apply N.div_le_upper_bound; lia). lia.
Qed.

(* flags (3 bits) over the fragment offset (13 bits), as two bytes *)
Lemma w16_flags_frag k fo :
  k < 4 -> fo < 8192 -> w16 (k * 8192 + fo) = [k * 32 + fo / 256; fo mod 256].
Proof.
  intros Hk Hf. unfold w16, to_be16.
  replace (k * 8192 + fo) with (fo + k * 32 * 256) by lia.
  rewrite N.div_add, N.mod_add by lia.
  assert (fo / 256 < 32) by (apply N.div_lt_upper_bound; lia).
  rewrite N.mod_small by lia. f_equal. lia.
Qed.

Theorem ipv4_header_checksum_correct e h :
  ipv4_hdr_ok h -> ipv4_calc_header_checksum e h = ipv4_header_checksum_spec h.
Proof.
  intros (Hd & Hec & Htl & Hid & Hfo & Httl & Hpr & Hs & Hdst & Hopt & Hol & Ho4).
  apply proto_core. unfold ipv4_header_pieces, ipv4_wire.
  pose proof (ipv4_ihl_lt h Hol) as Hihl.
  set (k := bit (v4_df h) * 2 + bit (v4_mf h)).
  assert (Hk : k < 4) by (subst k; destruct (v4_df h), (v4_mf h); cbn [bit]; lia).
  assert (Hq : v4_frag_off h / 256 < 32) by (apply N.div_lt_upper_bound; lia).
  (* the three bytes assembled with shifts and ors *)
  rewrite (ipv4_ihl_val h Hol). change (as_u8 (N.shiftl 4 4)) with 64.
  rewrite lor64, dscp_ecn_byte by assumption.
  rewrite ipv4_flags_byte_val. fold k.
  rewrite (N.mod_small (v4_frag_off h / 256)) by lia.
  rewrite flags_frag_byte by assumption.
  replace (bit (v4_df h) * 16384 + bit (v4_mf h) * 8192 + v4_frag_off h)
    with (k * 8192 + v4_frag_off h) by (subst k; lia).
  rewrite w16_flags_frag by assumption. zero16.
  clearbody k. split.
  - pieces_ok.
  - aligned_goal.
  - fields. sums. lia.
Qed.

Lemma udp_body_feeds h payload :
  bytes_ok payload -> feeds (udp_post_ip h payload) (udp_wire h 0 ++ payload).
Proof.
  intros Hp. unfold udp_post_ip, udp_wire. zero16. split.
  - pieces_ok.
  - aligned_goal.
  - fields. sums. lia.
Qed.

Lemma udp4_internal_correct e h src dst payload :
  udp_hdr_ok h -> ip4_ok src -> ip4_ok dst -> bytes_ok payload ->
  udp_calc_checksum_ipv4_internal e h src dst payload = udp4_spec src dst h (u_length h) payload.
Proof.
  intros Hh Hs Hd Hp.
  apply proto_core_pre_nz; [now apply pseudo4_feeds | now apply udp_body_feeds].
Qed.

Lemma udp6_internal_correct e h src dst payload :
  udp_hdr_ok h -> ip6_ok src -> ip6_ok dst -> bytes_ok payload ->
  udp_calc_checksum_ipv6_internal e h src dst payload = udp6_spec src dst h (u_length h) payload.
Proof.
  intros Hh Hs Hd Hp. apply proto_core_pre_nz.
  - apply pseudo6_feeds_u16; [exact Hs | exact Hd | reflexivity | apply Hh].
  - now apply udp_body_feeds.
Qed.

Theorem udp_ipv4_raw_correct e h src dst payload :
  udp_hdr_ok h -> ip4_ok src -> ip4_ok dst -> bytes_ok payload ->
  udp_calc_checksum_ipv4_raw e h src dst payload =
    if 65527 <? len payload then CErrTooBig (len payload) 65527
    else COk (udp4_spec src dst h (u_length h) payload).
Proof.
  intros. unfold udp_calc_checksum_ipv4_raw. change (U16MAX - UDP_LEN) with 65527.
  destruct (65527 <? len payload); [reflexivity|]. f_equal. now apply udp4_internal_correct.
Qed.

Theorem udp_ipv6_raw_correct e h src dst payload :
  udp_hdr_ok h -> ip6_ok src -> ip6_ok dst -> bytes_ok payload ->
  udp_calc_checksum_ipv6_raw e h src dst payload =
    if 4294967287 <? len payload then CErrTooBig (len payload) 4294967287
    else COk (udp6_spec src dst h (u_length h) payload).
Proof.
  intros. unfold udp_calc_checksum_ipv6_raw. change (U32MAX - UDP_LEN) with 4294967287.
  destruct (4294967287 <? len payload); [reflexivity|]. f_equal. now apply udp6_internal_correct.
Qed.

(* the constructors set length := 8 + |payload| themselves: unconditional *)
Definition udp_hdr_for (sport dport : N) (payload : bytes) : udp_hdr :=
  {| u_sport := sport; u_dport := dport; u_length := 8 + len payload |}.

Lemma udp_hdr_for_ok sport dport payload :
  sport < 65536 -> dport < 65536 -> len payload <= 65527 -> udp_hdr_ok (udp_hdr_for sport dport payload).
Proof. intros. unfold udp_hdr_ok, udp_hdr_for; cbn [u_sport u_dport u_length]. lia. Qed.

Theorem udp_with_ipv4_correct e sport dport src dst payload :
  sport < 65536 -> dport < 65536 -> ip4_ok src -> ip4_ok dst -> bytes_ok payload ->
  udp_with_ipv4_checksum e sport dport src dst payload =
    if 65527 <? len payload then UWErrTooBig (len payload) 65527
    else let h := udp_hdr_for sport dport payload in
         UWOk h (udp4_spec src dst h (8 + len payload) payload).
Proof.
  intros Hsp Hdp Hs Hd Hp. unfold udp_with_ipv4_checksum. change (U16MAX - UDP_LEN) with 65527.
  destruct (65527 <? len payload) eqn:E; [reflexivity|]. apply N.ltb_ge in E.
  change UDP_LEN with 8. rewrite as_u16_small by lia. cbn zeta.
  fold (udp_hdr_for sport dport payload). f_equal.
  now apply udp4_internal_correct; [apply udp_hdr_for_ok|..].
Qed.

Theorem udp_with_ipv6_correct e sport dport src dst payload :
  sport < 65536 -> dport < 65536 -> ip6_ok src -> ip6_ok dst -> bytes_ok payload ->
  udp_with_ipv6_checksum e sport dport src dst payload =
    if 65527 <? len payload then UWErrTooBig (len payload) 65527
    else let h := udp_hdr_for sport dport payload in
         UWOk h (udp6_spec src dst h (8 + len payload) payload).
Proof.
  intros Hsp Hdp Hs Hd Hp. unfold udp_with_ipv6_checksum. change (U16MAX - UDP_LEN) with 65527.
  destruct (65527 <? len payload) eqn:E; [reflexivity|]. apply N.ltb_ge in E.
  change UDP_LEN with 8. rewrite as_u16_small by lia. cbn zeta.
  fold (udp_hdr_for sport dport payload). f_equal.
  now apply udp6_internal_correct; [apply udp_hdr_for_ok|..].
Qed.

(* a computed UDP checksum is never 0 *)
Lemma no_zero_nonzero v : no_zero v <> 0.
Proof. unfold no_zero. destruct (v =? 0) eqn:E; [lia|]. now apply N.eqb_neq in E. Qed.

Theorem udp_nonzero e h sport dport src4 dst4 src6 dst6 payload :
  udp_hdr_ok h -> sport < 65536 -> dport < 65536 ->
  ip4_ok src4 -> ip4_ok dst4 -> ip6_ok src6 -> ip6_ok dst6 -> bytes_ok payload ->
  (forall v, udp_calc_checksum_ipv4_raw e h src4 dst4 payload = COk v -> v <> 0) /\
  (forall v, udp_calc_checksum_ipv6_raw e h src6 dst6 payload = COk v -> v <> 0) /\
  (forall h' v, udp_with_ipv4_checksum e sport dport src4 dst4 payload = UWOk h' v -> v <> 0) /\
  (forall h' v, udp_with_ipv6_checksum e sport dport src6 dst6 payload = UWOk h' v -> v <> 0).
Proof.
  intros. repeat split.
  - intros v. rewrite udp_ipv4_raw_correct by assumption.
    destruct (65527 <? len payload); [discriminate|]. intros [= <-]. apply no_zero_nonzero.
  - intros v. rewrite udp_ipv6_raw_correct by assumption.
    destruct (4294967287 <? len payload); [discriminate|]. intros [= <-]. apply no_zero_nonzero.
  - intros h' v. rewrite udp_with_ipv4_correct by assumption.
    destruct (65527 <? len payload); [discriminate|]. cbn zeta. intros [= _ <-]. apply no_zero_nonzero.
  - intros h' v. rewrite udp_with_ipv6_correct by assumption.
    destruct (65527 <? len payload); [discriminate|]. cbn zeta. intros [= _ <-]. apply no_zero_nonzero.
Qed.

Lemma tcp_byte12_sweep :
  forallb (fun l =>
     let doff := as_u8 (5 + N.shiftr (as_u8 l) 2) in
     let value := N.land (as_u8 (N.shiftl doff 4)) 240 in
     (N.lor value 1 =? (5 + l / 4) * 16 + 1) && (value =? (5 + l / 4) * 16)) (upto 41) = true.
Proof. vm_compute. reflexivity. Qed.

Lemma tcp_byte12_val h : len (t_options h) <= 40 ->
  tcp_byte12 h = tcp_data_offset h * 16 + bit (t_ns h).
Proof.
  intros H. pose proof (sweep1 41 _ tcp_byte12_sweep (len (t_options h)) ltac:(lia)) as S.
  cbn zeta in S. apply andb_true_iff in S. destruct S as [S1 S2].
  apply N.eqb_eq in S1. apply N.eqb_eq in S2.
  unfold tcp_byte12, tcp_data_offset_m, tcp_data_offset. destruct (t_ns h); cbn [bit]; lia.
Qed.

Lemma tcp_byte13_val h :
  tcp_byte13 h = bit (t_cwr h) * 128 + bit (t_ece h) * 64 + bit (t_urg h) * 32 + bit (t_ack h) * 16 +
                 bit (t_psh h) * 8 + bit (t_rst h) * 4 + bit (t_syn h) * 2 + bit (t_fin h).
Proof.
  unfold tcp_byte13.
  destruct (t_fin h), (t_syn h), (t_rst h), (t_psh h), (t_ack h), (t_urg h), (t_ece h), (t_cwr h);
    reflexivity.
Qed.

Lemma bit_le b : bit b <= 1.
Proof. destruct b; cbn [bit]; lia. Qed.

Lemma tcp_header_len_u16_val h : len (t_options h) <= 40 -> tcp_header_len_u16 h = tcp_header_len h.
Proof.
  intros H. unfold tcp_header_len_u16, tcp_header_len, as_u16, as_u8.
  rewrite (N.mod_small (len (t_options h))) by lia. rewrite N.mod_small by lia. reflexivity.
Qed.

(* the part after the pseudo header *)
Lemma tcp_body_feeds h payload :
  tcp_hdr_ok h -> bytes_ok payload -> feeds (tcp_post_ip h payload) (tcp_wire h 0 ++ payload).
Proof.
  intros (H1 & H2 & H3 & H4 & H5 & H6 & H7 & H8 & H9) Hp.
  unfold tcp_post_ip, tcp_wire. rewrite tcp_byte12_val, tcp_byte13_val by assumption. zero16.
  assert (tcp_data_offset h <= 15).
  { unfold tcp_data_offset.
    assert (len (t_options h) / 4 <= 10) by (apply N.div_le_upper_bound; lia). lia. }
  pose proof (bit_le (t_ns h)). pose proof (bit_le (t_cwr h)). pose proof (bit_le (t_ece h)).
  pose proof (bit_le (t_urg h)). pose proof (bit_le (t_ack h)). pose proof (bit_le (t_psh h)).
  pose proof (bit_le (t_rst h)). pose proof (bit_le (t_syn h)). pose proof (bit_le (t_fin h)).
  split.
  - pieces_ok.
  - aligned_goal.
  - fields. sums. lia.
Qed.

Theorem tcp_ipv4_raw_correct e h src dst payload :
  tcp_hdr_ok h -> ip4_ok src -> ip4_ok dst -> bytes_ok payload ->
  tcp_calc_checksum_ipv4_raw e h src dst payload =
    if 65535 - tcp_header_len h <? len payload
    then CErrTooBig (len payload) (65535 - tcp_header_len h)
    else COk (tcp4_spec src dst h payload).
Proof.
  intros Hh Hs Hd Hp. unfold tcp_calc_checksum_ipv4_raw.
  change (tcp_header_len_m h) with (tcp_header_len h). change U16MAX with 65535.
  destruct (65535 - tcp_header_len h <? len payload) eqn:E; [reflexivity|]. apply N.ltb_ge in E.
  assert (Hol : len (t_options h) <= 40) by apply Hh.
  rewrite tcp_header_len_u16_val by exact Hol. unfold tcp_header_len in *.
  rewrite (as_u16_small (len payload)), as_u16_small by lia.
  f_equal. apply proto_core_pre; [now apply pseudo4_feeds | now apply tcp_body_feeds].
Qed.

Theorem tcp_ipv6_raw_correct e h src dst payload :
  tcp_hdr_ok h -> ip6_ok src -> ip6_ok dst -> bytes_ok payload ->
  tcp_calc_checksum_ipv6_raw e h src dst payload =
    if 4294967295 - tcp_header_len h <? len payload
    then CErrTooBig (len payload) (4294967295 - tcp_header_len h)
    else COk (tcp6_spec src dst h payload).
Proof.
  intros Hh Hs Hd Hp. unfold tcp_calc_checksum_ipv6_raw.
  change (tcp_header_len_m h) with (tcp_header_len h). change U32MAX with 4294967295.
  destruct (4294967295 - tcp_header_len h <? len payload) eqn:E; [reflexivity|]. apply N.ltb_ge in E.
  assert (Hol : len (t_options h) <= 40) by apply Hh.
  rewrite tcp_header_len_u16_val by exact Hol. unfold tcp_header_len in *.
  rewrite (as_u32_small (len payload)), as_u32_small by lia.
  f_equal. apply proto_core_pre; [now apply pseudo6_feeds_len_first | now apply tcp_body_feeds].
Qed.

Lemma tcp_hl_sweep :
  forallb (fun b => let hl := N.shiftr (N.land b 240) 2 in (hl mod 4 =? 0) && (hl <=? 60)) (upto 256) = true.
Proof. vm_compute. reflexivity. Qed.

(* what TcpHeaderSlice::from_slice hands to the checksum functions *)
Theorem tcp_header_slice_from_slice_ok bs hdr :
  bytes_ok bs -> tcp_header_slice_from_slice bs = Some hdr ->
  tcp_hslice_ok hdr /\ hdr = take (len hdr) bs.
Proof.
  intros Hb. unfold tcp_header_slice_from_slice. change TCP_MIN_LEN with 20.
  destruct (len bs <? 20) eqn:E1; [discriminate|].
  destruct (rd bs 12) as [b12|] eqn:R; [|discriminate].
  pose proof (rd_ok _ _ _ Hb R) as Hb12.
  pose proof (sweep1 256 _ tcp_hl_sweep b12 Hb12) as S. cbn zeta in S.
  set (hl := N.shiftr (N.land b12 240) 2) in *.
  apply andb_true_iff in S. destruct S as [S1 S2]. apply N.eqb_eq in S1. apply N.leb_le in S2.
  destruct (hl <? 20) eqn:E2; [discriminate|].
  destruct (len bs <? hl) eqn:E3; [discriminate|].
  intros [= <-]. apply N.ltb_ge in E2, E3.
  assert (L : len (take hl bs) = hl) by (rewrite len_take; apply N.min_l; lia).
  rewrite L. split; [|reflexivity].
  unfold tcp_hslice_ok. rewrite L. repeat split; try assumption. now apply bytes_ok_take.
Qed.

(* pieces of calc_checksum_post_ip on raw bytes vs. the bytes with the checksum zeroed:
   bytes 16..18 are skipped, which is what summing them as zero gives *)
Lemma raw_body_feeds hdr data :
  bytes_ok hdr -> bytes_ok data -> 16 <= len hdr ->
  feeds [PSlice (take 16 hdr); PSlice (drop 18 hdr ++ data)] (zero_at 16 hdr ++ data).
Proof.
  intros Hh Hd Hl. unfold zero_at. change (16 + 2) with 18. split.
  - pieces_ok.
  - aligned_goal.
  - fields. rewrite app_nil_r, <- !app_assoc, !(sum_be16_app (take 16 hdr)) by auto with pieces.
    cbn [app]. rewrite sum_be16_cons2. unfold be16. lia.
Qed.

Lemma hslice_body_feeds hdr payload :
  tcp_hslice_ok hdr -> bytes_ok payload ->
  feeds [PSlice (take 16 hdr); PSlice (drop 18 hdr); PSlice payload] (zero_at 16 hdr ++ payload).
Proof.
  intros (Hh & H20 & H60 & H4) Hp.
  destruct (raw_body_feeds hdr payload Hh Hp ltac:(lia)) as [_ _ S]. split.
  - pieces_ok.
  - aligned_goal.
  - rewrite <- S. fields. now rewrite <- !app_assoc.
Qed.

Theorem tcp_slice_ipv4_correct e hdr data src dst :
  bytes_ok hdr -> bytes_ok data -> 20 <= len hdr -> ip4_ok src -> ip4_ok dst ->
  tcp_slice_calc_checksum_ipv4 e (hdr ++ data) src dst =
    if 65535 <? len hdr + len data then CErrTooBig (len hdr + len data) 65535
    else COk (tcp4_raw_spec src dst hdr data).
Proof.
  intros Hh Hd Hl Hs Hds. unfold tcp_slice_calc_checksum_ipv4. rewrite len_app. change U16MAX with 65535.
  destruct (65535 <? len hdr + len data) eqn:E; [reflexivity|]. apply N.ltb_ge in E.
  destruct (len hdr + len data <? 18) eqn:E2; [apply N.ltb_lt in E2; lia|].
  rewrite as_u16_small by lia. rewrite take_app_l, drop_app_l by lia.
  f_equal. apply proto_core_pre; [now apply pseudo4_feeds | apply raw_body_feeds; (assumption || lia)].
Qed.

Theorem tcp_slice_ipv6_correct e hdr data src dst :
  bytes_ok hdr -> bytes_ok data -> 20 <= len hdr -> ip6_ok src -> ip6_ok dst ->
  tcp_slice_calc_checksum_ipv6 e (hdr ++ data) src dst =
    if 4294967295 <? len hdr + len data then CErrTooBig (len hdr + len data) 4294967295
    else COk (tcp6_raw_spec src dst hdr data).
Proof.
  intros Hh Hd Hl Hs Hds. unfold tcp_slice_calc_checksum_ipv6. rewrite len_app.
  change U32MAX with 4294967295.
  destruct (4294967295 <? len hdr + len data) eqn:E; [reflexivity|]. apply N.ltb_ge in E.
  destruct (len hdr + len data <? 18) eqn:E2; [apply N.ltb_lt in E2; lia|].
  rewrite as_u32_small by lia. rewrite take_app_l, drop_app_l by lia.
  f_equal. apply proto_core_pre; [now apply pseudo6_feeds | apply raw_body_feeds; (assumption || lia)].
Qed.

Theorem tcp_hslice_ipv4_correct e hdr src dst payload :
  tcp_hslice_ok hdr -> ip4_ok src -> ip4_ok dst -> bytes_ok payload ->
  tcp_hslice_calc_checksum_ipv4_raw e hdr src dst payload =
    if 65535 - len hdr <? len payload then CErrTooBig (len payload) (65535 - len hdr)
    else COk (tcp4_raw_spec src dst hdr payload).
Proof.
  intros Hh Hs Hd Hp. pose proof Hh as (_ & H20 & H60 & _).
  unfold tcp_hslice_calc_checksum_ipv4_raw.
  change U16MAX with 65535. rewrite (as_u16_small (len hdr)) by lia.
  destruct (65535 - len hdr <? len payload) eqn:E; [reflexivity|]. apply N.ltb_ge in E.
  destruct (len hdr <? 18) eqn:E2; [apply N.ltb_lt in E2; lia|].
  rewrite (as_u16_small (len payload)), as_u16_small by lia.
  f_equal. apply proto_core_pre; [now apply pseudo4_feeds | now apply hslice_body_feeds].
Qed.

Theorem tcp_hslice_ipv6_correct e hdr src dst payload :
  tcp_hslice_ok hdr -> ip6_ok src -> ip6_ok dst -> bytes_ok payload ->
  tcp_hslice_calc_checksum_ipv6_raw e hdr src dst payload =
    if 4294967295 - len hdr <? len payload then CErrTooBig (len payload) (4294967295 - len hdr)
    else COk (tcp6_raw_spec src dst hdr payload).
Proof.
  intros Hh Hs Hd Hp. pose proof Hh as (_ & H20 & H60 & _).
  unfold tcp_hslice_calc_checksum_ipv6_raw.
  change U32MAX with 4294967295. rewrite (as_u32_small (len hdr)) by lia.
  destruct (4294967295 - len hdr <? len payload) eqn:E; [reflexivity|]. apply N.ltb_ge in E.
  destruct (len hdr <? 18) eqn:E2; [apply N.ltb_lt in E2; lia|].
  rewrite (as_u32_small (len payload)), as_u32_small by lia.
  f_equal. apply proto_core_pre; [now apply pseudo6_feeds | now apply hslice_body_feeds].
Qed.

Ltac ands := repeat match goal with H : _ /\ _ |- _ => destruct H end.

Theorem icmp4_correct e t payload :
  icmp4_ok t -> bytes_ok payload -> icmp4_calc_checksum e t payload = icmp4_spec t payload.
Proof.
  intros Ht Hp. apply proto_core.
  destruct t; cbn [icmp4_ok icmp4_pieces icmp4_wire] in *; ands; zero16;
    (split; [pieces_ok | aligned_goal | fields; sums; lia]).
Qed.

Theorem igmp_correct e t payload :
  igmp_ok t -> bytes_ok payload -> igmp_calc_checksum e t payload = igmp_spec t payload.
Proof.
  intros Ht Hp. apply proto_core.
  destruct t; cbn [igmp_ok igmp_pieces igmp_wire] in *; ands; zero16;
    (split; [pieces_ok | aligned_goal | fields; sums; lia]).
Qed.

Lemma ra_flags_val m o : ra_flags m o = bit m * 128 + bit o * 64.
Proof. destruct m, o; reflexivity. Qed.
Lemma na_first_byte_val r s o : na_first_byte r s o = bit r * 128 + bit s * 64 + bit o * 32.
Proof. destruct r, s, o; reflexivity. Qed.

Lemma icmp6_body_feeds t payload :
  icmp6_ok t -> bytes_ok payload ->
  feeds (icmp6_pieces t ++ [PSlice payload]) (icmp6_wire t 0 ++ payload).
Proof.
  intros Ht Hp.
  destruct t; cbn [icmp6_ok icmp6_pieces icmp6_wire] in *; ands;
    rewrite ?ra_flags_val, ?na_first_byte_val; zero16;
    try pose proof (bit_le managed); try pose proof (bit_le other);
    try pose proof (bit_le router); try pose proof (bit_le solicited); try pose proof (bit_le override);
    (split; [pieces_ok | aligned_goal |]).
  (* some fields are cut differently in code and RFC figure (one P4 for two 16 bit
     fields): compared byte by byte *)
  all: fields; sums; unfold w16, w32, to_be16, to_be32; cbn [sum_be16]; lia.
Qed.

Theorem icmp6_correct e t src dst payload :
  icmp6_ok t -> ip6_ok src -> ip6_ok dst -> bytes_ok payload ->
  icmp6_calc_checksum e t src dst payload =
    if 4294967287 <? len payload then CErrTooBig (len payload) 4294967287
    else COk (icmp6_spec src dst t payload).
Proof.
  intros Ht Hs Hd Hp. unfold icmp6_calc_checksum, icmp6_header_len.
  change (U32MAX - 8) with 4294967287.
  destruct (4294967287 <? len payload) eqn:E; [reflexivity|]. apply N.ltb_ge in E.
  rewrite as_u32_small by lia. rewrite (N.add_comm (len payload) 8).
  f_equal. apply proto_core_pre; [now apply pseudo6_feeds | now apply icmp6_body_feeds].
Qed.

(* Icmpv6Slice::is_checksum_valid accepts exactly the messages whose complete
   sum (pseudo header and message as received) folds to 0xffff *)
Theorem icmp6_valid_iff e slice src dst :
  ip6_ok src -> ip6_ok dst -> bytes_ok slice -> len slice < 4294967296 ->
  icmp6_is_checksum_valid e slice src dst = icmp6_valid_spec src dst slice.
Proof.
  intros Hs Hd Hp Hl. unfold icmp6_is_checksum_valid, icmp6_valid_spec, folds_to_ffff.
  rewrite as_u32_small by exact Hl.
  destruct (feeds_app _ [PSlice slice] _ _
              (pseudo6_feeds_len_first src dst (len slice) IPN_ICMPV6 Hs Hd eq_refl)
              (feeds_slice slice Hp)) as [Hok Hal Hsum].
  pose proof (checksum64_zero_iff e _ Hok Hal) as Z.
  rewrite (rfc1071_sum_eq _ _ Hsum) in Z. unfold rfc1071 in Z.
  pose proof (fold16_range (sum_be16 (pseudo6 src dst (len slice) IPN_ICMPV6 ++ slice))) as R.
  apply Bool.eq_true_iff_eq. rewrite !N.eqb_eq.
  etransitivity; [exact Z|]. change IPN_ICMPV6 with 58 in *. lia.
Qed.

(* a message carrying the checksum computed by calc_checksum is accepted:
   generic fact about RFC 1071 (the sum S of everything else, c the stored value) *)
Lemma verify_after_fill S : fold16 (S + (65535 - fold16 S)) = 65535.
Proof.
  destruct (fold16_eqz S) as [M Z]. pose proof (fold16_range S) as R.
  symmetry. apply fold16_unique; [lia|]. split; [|lia].
  replace 65535 with (fold16 S + (65535 - fold16 S)) at 1 by lia.
  apply Proofs.eqm_add; [exact M | apply Proofs.eqm_refl].
Qed.

(* the checksum field sits at an even offset: its value adds to the word sum *)
Lemma icmp6_wire_sum t c d :
  c < 65536 -> sum_be16 (icmp6_wire t c ++ d) = sum_be16 (icmp6_wire t 0 ++ d) + c.
Proof.
  intros Hc. pose proof (sum_w16 c Hc) as Hw.
  destruct t; cbn [icmp6_wire]; zero16; sums; lia.
Qed.

Theorem icmp6_filled_is_valid src dst t payload :
  icmp6_ok t -> ip6_ok src -> ip6_ok dst -> len payload <= 4294967287 ->
  icmp6_valid_spec src dst (icmp6_wire t (icmp6_spec src dst t payload) ++ payload) = true.
Proof.
  intros Ht Hs Hd Hl. unfold icmp6_valid_spec, folds_to_ffff. apply N.eqb_eq.
  set (c := icmp6_spec src dst t payload).
  assert (Hc : c <= 65535) by apply rfc1071_le.
  assert (Hlen : len (icmp6_wire t c ++ payload) = 8 + len payload).
  { rewrite len_app. destruct t; reflexivity. }
  rewrite Hlen, sum_be16_app, icmp6_wire_sum, N.add_assoc, <- sum_be16_app
    by (try apply even_pseudo6; (assumption || lia)).
  subst c. unfold icmp6_spec, rfc1071. apply verify_after_fill.
Qed.

Theorem update_checksum_ipv4_correct e th src dst payload :
  transport_ok th -> ip4_ok src -> ip4_ok dst -> bytes_ok payload ->
  update_checksum_ipv4 e th src dst payload = update4_spec th src dst payload.
Proof.
  intros Ht Hs Hd Hp. destruct th; cbn [update_checksum_ipv4 update4_spec transport_ok] in *.
  - rewrite udp_ipv4_raw_correct by assumption. destruct (65527 <? len payload); reflexivity.
  - rewrite tcp_ipv4_raw_correct by assumption.
    destruct (65535 - tcp_header_len h <? len payload); reflexivity.
  - f_equal. now apply icmp4_correct.
  - reflexivity.
Qed.

Theorem update_checksum_ipv6_correct e th src dst payload :
  transport_ok th -> ip6_ok src -> ip6_ok dst -> bytes_ok payload ->
  update_checksum_ipv6 e th src dst payload = update6_spec th src dst payload.
Proof.
  intros Ht Hs Hd Hp. destruct th; cbn [update_checksum_ipv6 update6_spec transport_ok] in *.
  - rewrite udp_ipv6_raw_correct by assumption. destruct (4294967287 <? len payload); reflexivity.
  - rewrite tcp_ipv6_raw_correct by assumption.
    destruct (4294967295 - tcp_header_len h <? len payload); reflexivity.
  - f_equal. now apply icmp4_correct.
  - rewrite icmp6_correct by assumption. destruct (4294967287 <? len payload); reflexivity.
Qed.

(* when the header's length field is consistent with the payload the two
   readings of "UDP length" coincide *)
Corollary udp_ipv4_raw_consistent e h src dst payload :
  udp_hdr_ok h -> ip4_ok src -> ip4_ok dst -> bytes_ok payload ->
  u_length h = 8 + len payload ->
  udp_calc_checksum_ipv4_raw e h src dst payload = COk (udp4_spec src dst h (8 + len payload) payload).
Proof.
  intros Hh Hs Hd Hp Hl. rewrite udp_ipv4_raw_correct by assumption.
  destruct Hh as (_ & _ & Hlen). destruct (65527 <? len payload) eqn:E.
  - apply N.ltb_lt in E. lia.
  - now rewrite Hl.
Qed.

Corollary udp_ipv6_raw_consistent e h src dst payload :
  udp_hdr_ok h -> ip6_ok src -> ip6_ok dst -> bytes_ok payload ->
  u_length h = 8 + len payload ->
  udp_calc_checksum_ipv6_raw e h src dst payload = COk (udp6_spec src dst h (8 + len payload) payload).
Proof.
  intros Hh Hs Hd Hp Hl. rewrite udp_ipv6_raw_correct by assumption.
  destruct Hh as (_ & _ & Hlen). destruct (4294967287 <? len payload) eqn:E.
  - apply N.ltb_lt in E. lia.
  - now rewrite Hl.
Qed.

(* ... and they differ otherwise: calc_checksum_ipv4_raw accepts a header whose
   length field (8) does not describe the payload (1 byte) and returns a value
   that is NOT the checksum over a pseudo header carrying the actual length 9 *)
Theorem udp_actual_length_reading_refuted :
  exists h src dst payload,
    udp_hdr_ok h /\ ip4_ok src /\ ip4_ok dst /\ bytes_ok payload /\ len payload <= 65527 /\
    exists v, udp_calc_checksum_ipv4_raw LE h src dst payload = COk v /\
              v <> udp4_spec src dst h (8 + len payload) payload.
Proof.
  exists {| u_sport := 0; u_dport := 0; u_length := 8 |}, (0, 0, 0, 0), (0, 0, 0, 0), [1].
  split; [unfold udp_hdr_ok; cbn; lia|].
  split; [repeat constructor|]. split; [repeat constructor|]. split; [repeat constructor|].
  split; [vm_compute; discriminate|].
  eexists. split; [vm_compute; reflexivity|]. vm_compute. discriminate.
Qed.
