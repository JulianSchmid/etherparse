(* Checksum/Proofs.v -- the accumulators of checksum.rs compute RFC 1071.
   Every stage (native-endian loads, end-around-carry addition, the final folds,
   to_be) keeps its value related by `==z` to the big-endian word sum it stands for;
   a value <= 65535 so related to x is fold16 x. *)
From EP Require Import Base.Bytes Base.Lists Checksum.Spec Checksum.Model.
From Coq Require Import ZArith Lia ZifyN ZifyBool.

Definition eqm (x y : N) : Prop := x mod 65535 = y mod 65535.
Infix "==m" := eqm (at level 70).

Lemma eqm_refl x : x ==m x. Proof. reflexivity. Qed.
Lemma eqm_sym x y : x ==m y -> y ==m x. Proof. unfold eqm; congruence. Qed.
Lemma eqm_trans x y z : x ==m y -> y ==m z -> x ==m z. Proof. unfold eqm; congruence. Qed.

Lemma eqm_plus_mult x y q : x = y + q * 65535 -> x ==m y.
Proof. intros ->. unfold eqm. apply N.mod_add. lia. Qed.

Lemma eqm_add x x' y y' : x ==m x' -> y ==m y' -> x + y ==m x' + y'.
Proof.
  unfold eqm. intros H1 H2.
  rewrite (N.add_mod x y), (N.add_mod x' y') by lia. now rewrite H1, H2.
Qed.

Lemma eqm_mul_l c x y : x ==m y -> c * x ==m c * y.
Proof.
  unfold eqm. intros H.
  rewrite (N.mul_mod c x), (N.mul_mod c y) by lia. now rewrite H.
Qed.

(* One's complement arithmetic has two zeros: the class of 0 modulo 65535 holds
   0 (nothing but zeros was summed) and 0xffff.  Congruence alone loses which,
   so every stage is shown to keep the class and the "is zero" bit together. *)
Definition eqz (x y : N) : Prop := x ==m y /\ (x = 0 <-> y = 0).
Infix "==z" := eqz (at level 70).

Lemma eqz_refl x : x ==z x.
Proof. split; [apply eqm_refl | tauto]. Qed.

Lemma eqz_sym x y : x ==z y -> y ==z x.
Proof. intros [H Z]. split; [now apply eqm_sym | tauto]. Qed.

Lemma eqz_trans x y z : x ==z y -> y ==z z -> x ==z z.
Proof. intros [H1 Z1] [H2 Z2]. split; [now apply eqm_trans with y | tauto]. Qed.

Lemma eqz_add x x' y y' : x ==z x' -> y ==z y' -> x + y ==z x' + y'.
Proof. intros [H1 Z1] [H2 Z2]. split; [now apply eqm_add | lia]. Qed.

Lemma eqz_mul_l c x y : 0 < c -> x ==z y -> c * x ==z c * y.
Proof.
  intros Hc [H Z]. split; [now apply eqm_mul_l|].
  rewrite !N.eq_mul_0. assert (c <> 0) by lia. tauto.
Qed.

Lemma eqz_plus_mult x y q : x = y + q * 65535 -> (y = 0 -> q = 0) -> x ==z y.
Proof. intros E Hq. split; [now apply eqm_plus_mult with q | lia]. Qed.

Lemma fold16_range x : fold16 x <= 65535.
Proof. unfold fold16. destruct (x =? 0) eqn:E; [lia|]. dmlia. Qed.

Lemma fold16_eqz x : fold16 x ==z x.
Proof.
  unfold fold16. destruct (x =? 0) eqn:E.
  - apply N.eqb_eq in E. subst. apply eqz_refl.
  - apply eqz_sym, eqz_plus_mult with (q := (x - 1) / 65535); dmlia.
Qed.

(* the two zeros are told apart by the second component of ==z, every other
   class has one member in 1..65535 *)
Lemma fold16_unique r x : r <= 65535 -> r ==z x -> r = fold16 x.
Proof.
  intros Hr Hx.
  pose proof (fold16_range x) as Fr.
  destruct (eqz_trans _ _ _ Hx (eqz_sym _ _ (fold16_eqz x))) as [E Z].
  unfold eqm in E. destruct (N.eq_dec r 0) as [R|R].
  - lia.
  - assert (fold16 x <> 0) by tauto. dmlia.
Qed.

Lemma fold16_eqz_eq x y : x ==z y -> fold16 x = fold16 y.
Proof.
  intros H. apply fold16_unique; [apply fold16_range|].
  now apply eqz_trans with x; [apply fold16_eqz|].
Qed.

(* moving the part above 16 bits down: one round of the RFC's carry folding *)
Lemma limb_eqz x : x / 65536 + x mod 65536 ==z x.
Proof.
  apply eqz_sym, eqz_plus_mult with (q := x / 65536); [|lia].
  pose proof (N.div_mod x 65536). lia.
Qed.

Lemma fold_carry_fold16 fuel x :
  (N.to_nat x < fuel)%nat -> fold_carry fuel x = fold16 x.
Proof.
  revert x. induction fuel as [|f IH]; intros x Hf; [lia|].
  cbn [fold_carry]. destruct (x <? 65536) eqn:E.
  - apply fold16_unique; [lia | apply eqz_refl].
  - rewrite IH; [apply fold16_eqz_eq, limb_eqz|].
    pose proof (N.div_mod x 65536). pose proof (N.mod_lt x 65536). lia.
Qed.

Lemma sum_be16_cons2 a b r : sum_be16 (a :: b :: r) = be16 a b + sum_be16 r.
Proof. reflexivity. Qed.

Definition even_len (bs : bytes) : Prop := Nat.even (length bs) = true.

Lemma even_len_app x y : even_len x -> even_len y -> even_len (x ++ y).
Proof.
  unfold even_len. rewrite app_length. rewrite !Nat.even_spec.
  intros [p Hp] [q Hq]. exists (p + q)%nat. lia.
Qed.

Lemma sum_be16_app x y :
  even_len x -> sum_be16 (x ++ y) = sum_be16 x + sum_be16 y.
Proof.
  unfold even_len. revert y.
  induction x as [x IH] using list_len_ind.
  intros y He. destruct x as [|a [|b r]].
  - reflexivity.
  - discriminate.
  - cbn [app]. rewrite !sum_be16_cons2. rewrite IH; [lia | cbn; lia | exact He].
Qed.

Lemma sum2 a b : sum_be16 [a; b] = be16 a b.
Proof. cbn [sum_be16]. unfold be16. lia. Qed.
Lemma sum1 a : sum_be16 [a] = be16 a 0.
Proof. cbn [sum_be16]. unfold be16. lia. Qed.
Lemma sum4 a b c d : sum_be16 [a; b; c; d] = be16 a b + be16 c d.
Proof. cbn [sum_be16]. unfold be16. lia. Qed.
Lemma sum8 a b c d f g h i :
  sum_be16 [a; b; c; d; f; g; h; i] = be16 a b + be16 c d + (be16 f g + be16 h i).
Proof. cbn [sum_be16]. unfold be16. lia. Qed.

(* native-endian loads vs big-endian words: weight w with w*w == 1 *)
Definition w (e : endian) : N := match e with LE => 256 | BE => 1 end.

Lemma w_pos e : 0 < w e.
Proof. destruct e; reflexivity. Qed.

Lemma ww_eqz e x : w e * (w e * x) ==z x.
Proof.
  destruct e; cbn [w].
  - apply eqz_plus_mult with (q := x); lia.
  - apply eqz_plus_mult with (q := 0); lia.
Qed.

Lemma ne16_eqz e a b : ne16 e a b ==z w e * be16 a b.
Proof.
  destruct e; cbn [ne16 w]; unfold be16.
  - apply eqz_sym, eqz_plus_mult with (q := a); lia.
  - apply eqz_plus_mult with (q := 0); lia.
Qed.

Lemma ne16_lt e a b : a < 256 -> b < 256 -> ne16 e a b < 65536.
Proof. destruct e; cbn [ne16]; lia. Qed.

Lemma ne32_eqz e a b c d : ne32 e a b c d ==z w e * (be16 a b + be16 c d).
Proof.
  destruct e; cbn [ne32 w]; unfold be16.
  - (* both sides reduce to a + 256 b + c + 256 d *)
    apply eqz_trans with (y := a + 256 * b + c + 256 * d).
    + apply eqz_plus_mult with (q := c + 256 * d); lia.
    + apply eqz_sym, eqz_plus_mult with (q := a + c); lia.
  - apply eqz_plus_mult with (q := 256 * a + b); lia.
Qed.

Lemma ne32_lt e a b c d :
  a < 256 -> b < 256 -> c < 256 -> d < 256 -> ne32 e a b c d < M32.
Proof. unfold M32. destruct e; cbn [ne32]; lia. Qed.

Lemma M32_eqz x : M32 * x ==z x.
Proof. unfold M32. apply eqz_plus_mult with (q := 65537 * x); lia. Qed.

Lemma ne64_eqz e a b c d f g h i :
  ne64 e a b c d f g h i ==z w e * (be16 a b + be16 c d + (be16 f g + be16 h i)).
Proof.
  rewrite N.mul_add_distr_l.
  destruct e; cbn [ne64].
  - apply eqz_add; [apply ne32_eqz|].
    eapply eqz_trans; [apply M32_eqz | apply ne32_eqz].
  - apply eqz_add; [|apply ne32_eqz].
    eapply eqz_trans; [apply M32_eqz | apply ne32_eqz].
Qed.

Lemma M32_lt_M64 : M32 < M64. Proof. reflexivity. Qed.

Lemma ne64_lt e a b c d f g h i :
  a < 256 -> b < 256 -> c < 256 -> d < 256 ->
  f < 256 -> g < 256 -> h < 256 -> i < 256 -> ne64 e a b c d f g h i < M64.
Proof.
  intros.
  assert (L : forall x y, x < M32 -> y < M32 -> x + M32 * y < M64) by (unfold M32, M64; lia).
  destruct e; cbn [ne64]; [|rewrite N.add_comm]; apply L; now apply ne32_lt.
Qed.

(* no debug-build overflow in `sum + carry` *)
Theorem oadd_no_overflow m s v : 0 < m -> s < m -> v < m -> oadd m s v < m.
Proof.
  intros Hm Hs Hv. unfold oadd. destruct (s + v <? m) eqn:E.
  - rewrite N.mod_small by lia. lia.
  - assert ((s + v) mod m = s + v - m) by (symmetry; apply N.mod_unique with (q := 1); lia).
    lia.
Qed.

(* dropping the carry out of the top and adding it at the bottom subtracts
   m - 1, a multiple of 65535 for m = 2^32 and m = 2^64 *)
Lemma oadd_eqz m k s v :
  m = 65535 * k + 1 -> s < m -> v < m -> oadd m s v ==z s + v.
Proof.
  intros Hm Hs Hv. unfold oadd.
  destruct (s + v <? m) eqn:E.
  - rewrite N.mod_small by lia. rewrite N.add_0_r. apply eqz_refl.
  - assert (Hmod : (s + v) mod m = s + v - m).
    { symmetry. apply N.mod_unique with (q := 1); lia. }
    rewrite Hmod. apply eqz_sym, eqz_plus_mult with (q := k); lia.
Qed.

Lemma M32_form : M32 = 65535 * 65537 + 1. Proof. reflexivity. Qed.
Lemma M64_form : M64 = 65535 * 281479271743489 + 1. Proof. reflexivity. Qed.

(* accumulator relation: s is what the accumulator holds after adding the
   (even-aligned) bytes bs to the start value s0 *)
Definition acc (m : N) (e : endian) (s0 s : N) (bs : bytes) : Prop :=
  s < m /\ s ==z s0 + w e * sum_be16 bs.

Lemma acc_start m e s0 : s0 < m -> acc m e s0 s0 [].
Proof.
  intros H. split; [exact H|]. cbn [sum_be16]. rewrite N.mul_0_r, N.add_0_r. apply eqz_refl.
Qed.

Lemma acc_spec m e s0 s bs :
  acc m e s0 s bs ->
  s < m /\ s ==m s0 + w e * sum_be16 bs /\ (s = 0 <-> s0 = 0 /\ sum_be16 bs = 0).
Proof.
  intros (Hlt & Hq & Hz). split; [exact Hlt|]. split; [exact Hq|].
  rewrite Hz. destruct e; cbn [w]; lia.
Qed.

Ltac inv_ok :=
  repeat match goal with
  | H : bytes_ok (_ :: _) |- _ => apply bytes_ok_cons in H; destruct H
  | H : byte_ok _ |- _ => unfold byte_ok in H
  end.

Ltac evlen := first [assumption | reflexivity | (apply even_len_app; [assumption|reflexivity])].

Section Steps.
  Variables (m k : N) (e : endian).
  Hypothesis Hm : m = 65535 * k + 1.

  (* adding a native value v that stands for the words of x *)
  Lemma acc_step s0 s bs v x :
    even_len bs -> acc m e s0 s bs -> v < m -> v ==z w e * sum_be16 x ->
    acc m e s0 (oadd m s v) (bs ++ x).
  Proof.
    intros He [Hs Hq] Hv Hvq. split.
    - apply oadd_no_overflow; lia.
    - eapply eqz_trans; [apply (oadd_eqz m k); assumption|].
      rewrite sum_be16_app by exact He. rewrite N.mul_add_distr_l, N.add_assoc.
      now apply eqz_add.
  Qed.

  Lemma step2 s0 s bs a b :
    65536 <= m -> even_len bs -> acc m e s0 s bs -> a < 256 -> b < 256 ->
    acc m e s0 (oadd m s (ne16 e a b)) (bs ++ [a; b]).
  Proof.
    intros HM He Ha Ba Bb. apply acc_step; [exact He | exact Ha | |].
    - pose proof (ne16_lt e a b Ba Bb). lia.
    - rewrite sum2. apply ne16_eqz.
  Qed.

  Lemma step1 s0 s bs a :
    65536 <= m -> even_len bs -> acc m e s0 s bs -> a < 256 ->
    acc m e s0 (oadd m s (ne16 e a 0)) (bs ++ [a]).
  Proof.
    intros HM He Ha Ba. apply acc_step; [exact He | exact Ha | |].
    - pose proof (ne16_lt e a 0 Ba). lia.
    - rewrite sum1. apply ne16_eqz.
  Qed.

  Lemma step4 s0 s bs a b c d :
    M32 <= m ->
    even_len bs -> acc m e s0 s bs -> a < 256 -> b < 256 -> c < 256 -> d < 256 ->
    acc m e s0 (oadd m s (ne32 e a b c d)) (bs ++ [a; b; c; d]).
  Proof.
    intros HM He Ha Ba Bb Bc Bd. apply acc_step; [exact He | exact Ha | |].
    - pose proof (ne32_lt e a b c d Ba Bb Bc Bd). lia.
    - rewrite sum4. apply ne32_eqz.
  Qed.

  Lemma step8 s0 s bs a b c d f g h i :
    M64 <= m ->
    even_len bs -> acc m e s0 s bs ->
    a < 256 -> b < 256 -> c < 256 -> d < 256 ->
    f < 256 -> g < 256 -> h < 256 -> i < 256 ->
    acc m e s0 (oadd m s (ne64 e a b c d f g h i)) (bs ++ [a; b; c; d; f; g; h; i]).
  Proof.
    intros HM He Ha Ba Bb Bc Bd Bf Bg Bh Bi. apply acc_step; [exact He | exact Ha | |].
    - pose proof (ne64_lt e a b c d f g h i Ba Bb Bc Bd Bf Bg Bh Bi). lia.
    - rewrite sum8. apply ne64_eqz.
  Qed.

  (* what both `tail` functions do with the last 0..3 bytes *)
  Definition tail3 (s : N) (bs : bytes) : N :=
    match bs with
    | [] => s
    | [a] => oadd m s (ne16 e a 0)
    | [a; b] => oadd m s (ne16 e a b)
    | [a; b; c] => oadd m (oadd m s (ne16 e a b)) (ne16 e c 0)
    | _ => s
    end.

  Lemma tail3_acc s0 s pre bs :
    65536 <= m ->
    (length bs < 4)%nat -> bytes_ok bs -> even_len pre -> acc m e s0 s pre ->
    acc m e s0 (tail3 s bs) (pre ++ bs).
  Proof.
    intros HM Hl Hok He Ha.
    destruct bs as [|a [|b [|c [|d r]]]]; cbn [length] in Hl; try lia; inv_ok; cbn [tail3].
    - rewrite app_nil_r. exact Ha.
    - now apply step1.
    - now apply step2.
    - change [a; b; c] with ([a; b] ++ [c]). rewrite app_assoc.
      apply step1; [exact HM | evlen | | assumption]. now apply step2.
  Qed.
End Steps.

Lemma M64_big : M32 <= M64 /\ 65536 <= M64.
Proof. split; discriminate. Qed.

Lemma u64_tail_acc e s0 s pre bs :
  (length bs < 8)%nat -> bytes_ok bs -> even_len pre -> acc M64 e s0 s pre ->
  acc M64 e s0 (U64.tail e s bs) (pre ++ bs).
Proof.
  intros Hl Hok He Ha. destruct M64_big as [B32 B16].
  destruct bs as [|a [|b [|c [|d r]]]].
  (* fewer than four bytes: U64.tail is tail3 *)
  1-4: refine (tail3_acc M64 _ e M64_form s0 s pre _ B16 _ Hok He Ha); cbn [length]; lia.
  (* four or more: add_4bytes, then tail3 of the rest *)
  assert (E : U64.tail e s (a :: b :: c :: d :: r) = tail3 M64 e (U64.add_4bytes e s a b c d) r).
  { destruct r as [|f [|g [|h [|i r]]]]; [reflexivity.. | cbn [length] in Hl; lia]. }
  rewrite E. change (a :: b :: c :: d :: r) with ([a; b; c; d] ++ r). rewrite app_assoc.
  inv_ok.
  apply (tail3_acc M64 _ e M64_form); [exact B16 | cbn [length] in Hl; lia | assumption | evlen |].
  now apply (step4 M64 _ e M64_form).
Qed.

Lemma u64_add_slice_acc e bs : forall s0 s pre,
  bytes_ok bs -> even_len pre -> acc M64 e s0 s pre ->
  acc M64 e s0 (U64.add_slice e s bs) (pre ++ bs).
Proof.
  induction bs as [bs IH] using list_len_ind.
  intros s0 s pre Hok He Ha.
  destruct bs as [|a [|b [|c [|d [|f [|g [|h [|i r]]]]]]]].
  1-8: apply u64_tail_acc; [cbn [length]; lia | assumption..].
  cbn [U64.add_slice].
  change (a :: b :: c :: d :: f :: g :: h :: i :: r) with ([a; b; c; d; f; g; h; i] ++ r).
  rewrite app_assoc.
  inv_ok.
  apply IH; [cbn [length]; lia | assumption | evlen |].
  apply (step8 M64 _ e M64_form); [apply N.le_refl | assumption..].
Qed.

Lemma u32_tail_acc e s0 s pre bs :
  (length bs < 4)%nat -> bytes_ok bs -> even_len pre -> acc M32 e s0 s pre ->
  acc M32 e s0 (U32.tail e s bs) (pre ++ bs).
Proof. apply (tail3_acc M32 _ e M32_form). discriminate. Qed.

Lemma u32_add_slice_acc e bs : forall s0 s pre,
  bytes_ok bs -> even_len pre -> acc M32 e s0 s pre ->
  acc M32 e s0 (U32.add_slice e s bs) (pre ++ bs).
Proof.
  induction bs as [bs IH] using list_len_ind.
  intros s0 s pre Hok He Ha.
  destruct bs as [|a [|b [|c [|d r]]]].
  1-4: apply u32_tail_acc; [cbn [length]; lia | assumption..].
  cbn [U32.add_slice].
  change (a :: b :: c :: d :: r) with ([a; b; c; d] ++ r).
  rewrite app_assoc.
  inv_ok.
  apply IH; [cbn [length]; lia | assumption | evlen |].
  apply (step4 M32 _ e M32_form); [apply N.le_refl | assumption..].
Qed.

Definition piece_ok (p : piece) : Prop :=
  bytes_ok (piece_bytes p) /\
  match p with P16 x => length x = 16%nat | _ => True end.

Lemma piece_ok_P2 a b : a < 256 -> b < 256 -> piece_ok (P2 a b).
Proof. intros. split; [now repeat constructor | exact I]. Qed.
Lemma piece_ok_P4 a b c d : a < 256 -> b < 256 -> c < 256 -> d < 256 -> piece_ok (P4 a b c d).
Proof. intros. split; [now repeat constructor | exact I]. Qed.
Lemma piece_ok_PSlice bs : bytes_ok bs -> piece_ok (PSlice bs).
Proof. intros H. split; [exact H | exact I]. Qed.

(* every piece except possibly the last one has even length *)
Fixpoint pieces_aligned (ps : list piece) : Prop :=
  match ps with
  | [] => True
  | [p] => True
  | p :: r => even_len (piece_bytes p) /\ pieces_aligned r
  end.

(* the fixed-size calls are add_slice on their bytes, unrolled *)
Lemma add_piece64_slice e s p :
  piece_ok p -> add_piece64 e s p = U64.add_slice e s (piece_bytes p).
Proof.
  intros [_ Hl]. destruct p as [| | |x|]; try reflexivity.
  do 17 (destruct x as [|? x]; try discriminate Hl). reflexivity.
Qed.

Lemma add_piece32_slice e s p :
  piece_ok p -> add_piece32 e s p = U32.add_slice e s (piece_bytes p).
Proof.
  intros [_ Hl]. destruct p as [| | |x|]; try reflexivity.
  do 17 (destruct x as [|? x]; try discriminate Hl). reflexivity.
Qed.

Lemma add_piece64_acc e s0 s pre p :
  piece_ok p -> even_len pre -> acc M64 e s0 s pre ->
  acc M64 e s0 (add_piece64 e s p) (pre ++ piece_bytes p).
Proof.
  intros Hp. rewrite add_piece64_slice by exact Hp. apply u64_add_slice_acc, Hp.
Qed.

Lemma add_piece32_acc e s0 s pre p :
  piece_ok p -> even_len pre -> acc M32 e s0 s pre ->
  acc M32 e s0 (add_piece32 e s p) (pre ++ piece_bytes p).
Proof.
  intros Hp. rewrite add_piece32_slice by exact Hp. apply u32_add_slice_acc, Hp.
Qed.

Lemma pieces_bytes_cons p r : pieces_bytes (p :: r) = piece_bytes p ++ pieces_bytes r.
Proof. reflexivity. Qed.

Lemma pieces_bytes_ok ps : Forall piece_ok ps -> bytes_ok (pieces_bytes ps).
Proof.
  induction 1 as [|p r [Hp _] _ IH]; [constructor|].
  rewrite pieces_bytes_cons. apply bytes_ok_app. now split.
Qed.

Lemma land_ffff x : N.land x 65535 = x mod 65536.
Proof. change 65535 with (N.ones 16). rewrite N.land_ones. reflexivity. Qed.

Lemma shr16 x : N.shiftr x 16 = x / 65536.
Proof. rewrite N.shiftr_div_pow2. reflexivity. Qed.
Lemma shr32 x : N.shiftr x 32 = x / 65536 / 65536.
Proof. rewrite N.shiftr_div_pow2. rewrite N.div_div by lia. reflexivity. Qed.
Lemma shr48 x : N.shiftr x 48 = x / 65536 / 65536 / 65536.
Proof. rewrite N.shiftr_div_pow2. rewrite !N.div_div by lia. reflexivity. Qed.

(* the step both ones_complement functions end with, twice *)
Definition fold_once (x : N) : N := N.land (N.shiftr x 16) 65535 + N.land x 65535.

Lemma fold_once_small x : x < 65536 * 65536 -> fold_once x = x / 65536 + x mod 65536.
Proof.
  intros Hx. unfold fold_once. rewrite !land_ffff, shr16.
  rewrite (N.mod_small (x / 65536)); [reflexivity|]. apply N.div_lt_upper_bound; lia.
Qed.

(* after one round at most 2 * 0xffff is left, after two at most 0xffff *)
Lemma fold_twice x : x < 65536 * 65536 -> fold_once (fold_once x) mod 65536 = fold16 x.
Proof.
  intros Hx. rewrite (fold_once_small x Hx).
  pose proof (limb_eqz x) as Ey.
  assert (By : x / 65536 + x mod 65536 <= 65535 + 65535).
  { assert (x / 65536 < 65536) by (apply N.div_lt_upper_bound; lia).
    pose proof (N.mod_lt x 65536). lia. }
  set (y := x / 65536 + x mod 65536) in *. clearbody y.
  rewrite (fold_once_small y) by lia.
  pose proof (limb_eqz y) as Ez.
  assert (Bz : y / 65536 + y mod 65536 <= 65535).
  { pose proof (N.div_mod y 65536). pose proof (N.mod_lt y 65536). lia. }
  rewrite N.mod_small by lia.
  apply fold16_unique; [exact Bz | now apply eqz_trans with y].
Qed.

Definition u16_of_64 (s : N) : N := 65535 - U64.ones_complement s.
Definition u16_of_32 (s : N) : N := 65535 - U32.ones_complement s.

Lemma u32_fold_spec s : s < M32 -> U32.ones_complement s = 65535 - fold16 s.
Proof.
  intros Hs. change (U32.ones_complement s) with (65535 - fold_once (fold_once s) mod 65536).
  now rewrite fold_twice.
Qed.

Lemma u64_fold_spec s : s < M64 -> U64.ones_complement s = 65535 - fold16 s.
Proof.
  intros Hs.
  set (first := N.land (N.shiftr s 48) 65535 + N.land (N.shiftr s 32) 65535
                + N.land (N.shiftr s 16) 65535 + N.land s 65535).
  change (U64.ones_complement s) with (65535 - fold_once (fold_once first) mod 65536).
  assert (H : first ==z s /\ first <= 4 * 65535).
  { subst first. rewrite !land_ffff, shr16, shr32, shr48.
    set (t1 := s / 65536). set (t2 := t1 / 65536). set (t3 := t2 / 65536).
    assert (L3 : t3 < 65536).
    { do 3 (apply N.div_lt_upper_bound; [lia|]). exact Hs. }
    rewrite (N.mod_small t3) by exact L3. split.
    - (* fold the limbs in from the top, one limb_eqz each *)
      apply eqz_trans with (t1 + s mod 65536); [|apply limb_eqz].
      apply eqz_add; [|apply eqz_refl].
      apply eqz_trans with (t2 + t1 mod 65536); [|apply limb_eqz].
      apply eqz_add; [|apply eqz_refl]. apply limb_eqz.
    - pose proof (N.mod_lt t2 65536). pose proof (N.mod_lt t1 65536).
      pose proof (N.mod_lt s 65536). lia. }
  destruct H as [E B]. rewrite fold_twice by lia. f_equal. now apply fold16_eqz_eq.
Qed.

Lemma to_be_spec e u :
  u <= 65535 ->
  to_be16v e (65535 - u) = 65535 - to_be16v e u /\
  to_be16v e u <= 65535 /\ to_be16v e u ==m w e * u /\ (to_be16v e u = 0 <-> u = 0).
Proof.
  intros Hu. destruct e; cbn [to_be16v w]; unfold swap16.
  - repeat split; try dmlia.
    apply eqm_sym. apply eqm_plus_mult with (q := u / 256). dmlia.
  - repeat split; try lia. apply eqm_plus_mult with (q := 0). lia.
Qed.

Lemma to_be_ffff e : to_be16v e 65535 = 65535.
Proof. destruct e; reflexivity. Qed.

Lemma to_be_zero_iff e v : v <= 65535 -> (to_be16v e v = 0 <-> v = 0).
Proof. intros H. destruct (to_be_spec e v H) as (_ & _ & _ & T). exact T. Qed.

Lemma rfc1071_le bs : rfc1071 bs <= 65535.
Proof. unfold rfc1071. lia. Qed.

(* the big-endian checksum obtained from any start value is the RFC fold of (the start
   value, byte swapped on a little-endian host) + (the big-endian word sum) *)
Lemma finish_any e s0 s bs :
  s ==z s0 + w e * sum_be16 bs ->
  to_be16v e (65535 - fold16 s) = 65535 - fold16 (w e * s0 + sum_be16 bs).
Proof.
  intros Hs. pose proof (w_pos e) as Hw.
  destruct (to_be_spec e (fold16 s) (fold16_range s)) as (T1 & T2 & T3 & T4).
  rewrite T1. f_equal. apply fold16_unique; [exact T2|].
  apply eqz_trans with (w e * fold16 s).
  { split; [exact T3|]. rewrite T4, N.eq_mul_0. lia. }
  apply eqz_trans with (w e * (s0 + w e * sum_be16 bs)).
  { apply eqz_mul_l; [exact Hw|]. now apply eqz_trans with s; [apply fold16_eqz|]. }
  rewrite N.mul_add_distr_l. apply eqz_add; [apply eqz_refl | apply ww_eqz].
Qed.

(* All that the results below need of a width: its add_* calls keep `acc`, and its
   ones_complement is 0xffff - fold16 on every accumulator value. *)
Section Width.
  Variables (m : N) (oc : N -> N).
  Hypothesis fold_spec : forall s, s < m -> oc s = 65535 - fold16 s.

  (* the final fold of an arbitrary accumulator value, also in the non-zero variant
     used by UDP (0 is transmitted as 0xffff) *)
  Lemma fold_any s : s < m ->
    oc s = 65535 - fold16 s /\
    (if oc s =? 0 then 65535 else oc s) = (if fold16 s =? 65535 then 65535 else 65535 - fold16 s) /\
    (exists u, oc s = 65535 - u /\ u <= 65535 /\ u ==m s /\ (u = 0 <-> s = 0)).
  Proof.
    intros Hs. pose proof (fold_spec s Hs) as E. pose proof (fold16_range s) as R.
    split; [exact E|]. split.
    - rewrite E. destruct (N.eqb_spec (fold16 s) 65535) as [F|F].
      + rewrite F. reflexivity.
      + destruct (N.eqb_spec (65535 - fold16 s) 0); [lia | reflexivity].
    - exists (fold16 s). destruct (fold16_eqz s) as [Q Z]. now repeat split; try apply Z.
  Qed.

  Variable add_piece : endian -> N -> piece -> N.
  Hypothesis piece_acc : forall e s0 s pre p,
    piece_ok p -> even_len pre -> acc m e s0 s pre ->
    acc m e s0 (add_piece e s p) (pre ++ piece_bytes p).

  Lemma sum_pieces_acc e ps : forall s0 s pre,
    Forall piece_ok ps -> pieces_aligned ps -> even_len pre -> acc m e s0 s pre ->
    acc m e s0 (fold_left (add_piece e) ps s) (pre ++ pieces_bytes ps).
  Proof.
    induction ps as [|p r IH]; intros s0 s pre Hok Hal He Ha.
    - cbn [fold_left]. unfold pieces_bytes. cbn [map concat]. rewrite app_nil_r. exact Ha.
    - rewrite pieces_bytes_cons, app_assoc. cbn [fold_left].
      inversion Hok as [|? ? Hp Hr]; subst.
      destruct r as [|q r'].
      + cbn [fold_left]. unfold pieces_bytes. cbn [map concat]. rewrite app_nil_r.
        now apply piece_acc.
      + destruct Hal as [Hev Hal'].
        apply IH; [exact Hr | exact Hal' | now apply even_len_app | now apply piece_acc].
  Qed.

  (* accumulators started anywhere (all accumulator states incl. near 2^64): the
     end-around carry keeps the congruence and never loses a non-zero sum *)
  Lemma pieces_any_start e s0 ps :
    s0 < m -> Forall piece_ok ps -> pieces_aligned ps ->
    let s := fold_left (add_piece e) ps s0 in
    s < m /\ s ==m s0 + w e * sum_be16 (pieces_bytes ps) /\
    (s = 0 <-> s0 = 0 /\ sum_be16 (pieces_bytes ps) = 0).
  Proof.
    intros H0 Hok Hal. apply acc_spec.
    exact (sum_pieces_acc e ps s0 s0 [] Hok Hal eq_refl (acc_start m e s0 H0)).
  Qed.

  Lemma checksum_any_start e s0 ps :
    s0 < m -> Forall piece_ok ps -> pieces_aligned ps ->
    to_be16v e (oc (fold_left (add_piece e) ps s0))
      = 65535 - fold16 (w e * s0 + sum_be16 (pieces_bytes ps)).
  Proof.
    intros H0 Hok Hal.
    destruct (sum_pieces_acc e ps s0 s0 [] Hok Hal eq_refl (acc_start m e s0 H0)) as [Hlt Hz].
    rewrite fold_spec by exact Hlt. now apply finish_any.
  Qed.

  Hypothesis m_pos : 0 < m.

  Lemma checksum_rfc1071 e ps :
    Forall piece_ok ps -> pieces_aligned ps ->
    to_be16v e (oc (fold_left (add_piece e) ps 0)) = rfc1071 (pieces_bytes ps).
  Proof.
    intros Hok Hal. rewrite checksum_any_start by assumption.
    rewrite N.mul_0_r, N.add_0_l. reflexivity.
  Qed.

  Lemma checksum_zero_iff e ps :
    Forall piece_ok ps -> pieces_aligned ps ->
    (oc (fold_left (add_piece e) ps 0) = 0 <-> rfc1071 (pieces_bytes ps) = 0).
  Proof.
    intros Hok Hal. rewrite <- (checksum_rfc1071 e ps Hok Hal).
    symmetry. apply to_be_zero_iff.
    destruct (pieces_any_start e 0 ps m_pos Hok Hal) as [Hlt _].
    rewrite fold_spec by exact Hlt. lia.
  Qed.

  Lemma checksum_no_zero_spec e ps :
    Forall piece_ok ps -> pieces_aligned ps ->
    to_be16v e (let v := oc (fold_left (add_piece e) ps 0) in if v =? 0 then 65535 else v) =
      (if rfc1071 (pieces_bytes ps) =? 0 then 65535 else rfc1071 (pieces_bytes ps)).
  Proof.
    intros Hok Hal. cbv zeta.
    pose proof (checksum_zero_iff e ps Hok Hal) as Z.
    destruct (N.eqb_spec (oc (fold_left (add_piece e) ps 0)) 0) as [E1|E1];
      destruct (N.eqb_spec (rfc1071 (pieces_bytes ps)) 0) as [E2|E2]; try tauto.
    - apply to_be_ffff.
    - now apply checksum_rfc1071.
  Qed.
End Width.

Theorem checksum64_rfc1071 e ps :
  Forall piece_ok ps -> pieces_aligned ps ->
  checksum64 e ps = rfc1071 (pieces_bytes ps).
Proof.
  exact (checksum_rfc1071 M64 U64.ones_complement u64_fold_spec add_piece64 add_piece64_acc eq_refl e ps).
Qed.

Theorem checksum32_rfc1071 e ps :
  Forall piece_ok ps -> pieces_aligned ps ->
  checksum32 e ps = rfc1071 (pieces_bytes ps).
Proof.
  exact (checksum_rfc1071 M32 U32.ones_complement u32_fold_spec add_piece32 add_piece32_acc eq_refl e ps).
Qed.

(* the plain helper: one add_slice over the whole input *)
Lemma pieces_ok_slice bs : bytes_ok bs -> Forall piece_ok [PSlice bs].
Proof. intros H. constructor; [now apply piece_ok_PSlice | constructor]. Qed.

Corollary add_slice64_rfc1071 e bs :
  bytes_ok bs ->
  to_be16v e (U64.ones_complement (U64.add_slice e 0 bs)) = rfc1071 bs.
Proof.
  intros H. rewrite <- (app_nil_r bs) at 2.
  exact (checksum64_rfc1071 e [PSlice bs] (pieces_ok_slice bs H) I).
Qed.

Corollary add_slice32_rfc1071 e bs :
  bytes_ok bs ->
  to_be16v e (U32.ones_complement (U32.add_slice e 0 bs)) = rfc1071 bs.
Proof.
  intros H. rewrite <- (app_nil_r bs) at 2.
  exact (checksum32_rfc1071 e [PSlice bs] (pieces_ok_slice bs H) I).
Qed.

(* split independence: any aligned sequence of pieces = one pass *)
Corollary split_independent64 e ps :
  Forall piece_ok ps -> pieces_aligned ps ->
  checksum64 e ps = checksum64 e [PSlice (pieces_bytes ps)].
Proof.
  intros Hok Hal. rewrite checksum64_rfc1071 by assumption.
  rewrite checksum64_rfc1071; [|now apply pieces_ok_slice, pieces_bytes_ok | exact I].
  unfold pieces_bytes at 2. cbn [map concat piece_bytes]. now rewrite app_nil_r.
Qed.

Corollary widths_agree e ps :
  Forall piece_ok ps -> pieces_aligned ps -> checksum64 e ps = checksum32 e ps.
Proof.
  intros. rewrite checksum64_rfc1071, checksum32_rfc1071 by assumption. reflexivity.
Qed.

(* non-zero variant used by UDP: 0 is transmitted as 0xffff *)
Theorem checksum64_no_zero_spec e ps :
  Forall piece_ok ps -> pieces_aligned ps ->
  checksum64_no_zero e ps =
    (if rfc1071 (pieces_bytes ps) =? 0 then 65535 else rfc1071 (pieces_bytes ps)).
Proof.
  exact (checksum_no_zero_spec M64 U64.ones_complement u64_fold_spec add_piece64 add_piece64_acc eq_refl e ps).
Qed.

Theorem checksum32_no_zero_spec e ps :
  Forall piece_ok ps -> pieces_aligned ps ->
  checksum32_no_zero e ps =
    (if rfc1071 (pieces_bytes ps) =? 0 then 65535 else rfc1071 (pieces_bytes ps)).
Proof.
  exact (checksum_no_zero_spec M32 U32.ones_complement u32_fold_spec add_piece32 add_piece32_acc eq_refl e ps).
Qed.

(* `ones_complement() == 0`, as the receiver side tests it *)
Lemma checksum64_zero_iff e ps :
  Forall piece_ok ps -> pieces_aligned ps ->
  (U64.ones_complement (sum_pieces64 e 0 ps) = 0 <-> rfc1071 (pieces_bytes ps) = 0).
Proof.
  exact (checksum_zero_iff M64 U64.ones_complement u64_fold_spec add_piece64 add_piece64_acc eq_refl e ps).
Qed.

Theorem add_slice64_any_start e s0 bs :
  s0 < M64 -> bytes_ok bs ->
  let s := U64.add_slice e s0 bs in
  s < M64 /\ s ==m s0 + w e * sum_be16 bs /\ (s = 0 <-> s0 = 0 /\ sum_be16 bs = 0).
Proof.
  intros H0 Hok. apply acc_spec.
  exact (u64_add_slice_acc e bs s0 s0 [] Hok eq_refl (acc_start M64 e s0 H0)).
Qed.

Theorem add_slice32_any_start e s0 bs :
  s0 < M32 -> bytes_ok bs ->
  let s := U32.add_slice e s0 bs in
  s < M32 /\ s ==m s0 + w e * sum_be16 bs /\ (s = 0 <-> s0 = 0 /\ sum_be16 bs = 0).
Proof.
  intros H0 Hok. apply acc_spec.
  exact (u32_add_slice_acc e bs s0 s0 [] Hok eq_refl (acc_start M32 e s0 H0)).
Qed.
