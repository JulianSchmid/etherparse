(* Checksum/AnyStart.v -- property C09: the quantifier "for all accumulator states,
   including carries out of 32/64 bits" for every helper call and for the final fold:
     pieces_any_start64/32  any sequence of add_2bytes / add_4bytes / add_8bytes /
                            add_16bytes / add_slice calls (even split) from ANY accumulator
                            value s0 < 2^64 (2^32): no overflow of the accumulator type, the
                            result is congruent to s0 + the word sum, and is 0 only if
                            nothing but zeros was added to a zero accumulator;
     fold_any64/32          `ones_complement` of ANY accumulator value is the RFC fold
                            (closed form `fold16`), `ones_complement_with_no_zero` likewise;
     checksum_any_start64/32  both together: the final big-endian checksum from any start.
   Instances of Section Width of Checksum/Proofs.v at the two accumulator widths. *)
From EP Require Import Base.Bytes Checksum.Spec Checksum.Model Checksum.Proofs.
Local Open Scope N_scope.

Lemma pieces_any_start64 e s0 ps :
  s0 < M64 -> Forall piece_ok ps -> pieces_aligned ps ->
  let s := sum_pieces64 e s0 ps in
  s < M64 /\ s ==m s0 + w e * sum_be16 (pieces_bytes ps) /\
  (s = 0 <-> s0 = 0 /\ sum_be16 (pieces_bytes ps) = 0).
Proof. exact (pieces_any_start M64 add_piece64 add_piece64_acc e s0 ps). Qed.

Lemma pieces_any_start32 e s0 ps :
  s0 < M32 -> Forall piece_ok ps -> pieces_aligned ps ->
  let s := sum_pieces32 e s0 ps in
  s < M32 /\ s ==m s0 + w e * sum_be16 (pieces_bytes ps) /\
  (s = 0 <-> s0 = 0 /\ sum_be16 (pieces_bytes ps) = 0).
Proof. exact (pieces_any_start M32 add_piece32 add_piece32_acc e s0 ps). Qed.

Lemma fold_any64 s : s < M64 ->
  U64.ones_complement s = 65535 - fold16 s /\
  U64.ones_complement_with_no_zero s = (if fold16 s =? 65535 then 65535 else 65535 - fold16 s) /\
  (exists u, U64.ones_complement s = 65535 - u /\ u <= 65535 /\ u ==m s /\ (u = 0 <-> s = 0)).
Proof. exact (fold_any M64 U64.ones_complement u64_fold_spec s). Qed.

Lemma fold_any32 s : s < M32 ->
  U32.ones_complement s = 65535 - fold16 s /\
  U32.ones_complement_with_no_zero s = (if fold16 s =? 65535 then 65535 else 65535 - fold16 s) /\
  (exists u, U32.ones_complement s = 65535 - u /\ u <= 65535 /\ u ==m s /\ (u = 0 <-> s = 0)).
Proof. exact (fold_any M32 U32.ones_complement u32_fold_spec s). Qed.

Lemma checksum_any_start64 e s0 ps :
  s0 < M64 -> Forall piece_ok ps -> pieces_aligned ps ->
  to_be16v e (U64.ones_complement (sum_pieces64 e s0 ps))
    = 65535 - fold16 (w e * s0 + sum_be16 (pieces_bytes ps)).
Proof.
  exact (checksum_any_start M64 U64.ones_complement u64_fold_spec add_piece64 add_piece64_acc e s0 ps).
Qed.

Lemma checksum_any_start32 e s0 ps :
  s0 < M32 -> Forall piece_ok ps -> pieces_aligned ps ->
  to_be16v e (U32.ones_complement (sum_pieces32 e s0 ps))
    = 65535 - fold16 (w e * s0 + sum_be16 (pieces_bytes ps)).
Proof.
  exact (checksum_any_start M32 U32.ones_complement u32_fold_spec add_piece32 add_piece32_acc e s0 ps).
Qed.
