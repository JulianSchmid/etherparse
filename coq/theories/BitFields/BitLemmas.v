(* BitFields/BitLemmas.v -- generic facts about bit strings and layouts, shifts and
   masks as arithmetic, complete finite sweeps.  Nothing here mentions the crate. *)
From EP Require Import Base.Bytes Base.Lists BitFields.Spec.
From Coq Require Import ZArith Lia ZifyN.
Local Open Scope N_scope.

Arguments nbits : simpl never.

Lemma nbits_S w v : nbits (S w) v = nbits w (v / 2) ++ [v mod 2 =? 1].
Proof. reflexivity. Qed.

Lemma nbits_0 v : nbits 0 v = [].
Proof. reflexivity. Qed.

Lemma nbits_length w v : length (nbits w v) = w.
Proof.
  revert v. induction w as [|w IH]; intros v.
  - reflexivity.
  - rewrite nbits_S, app_length, IH. cbn [length]. lia.
Qed.

Lemma pow2_S n : 2 ^ N.of_nat (S n) = 2 * 2 ^ N.of_nat n.
Proof. rewrite Nat2N.inj_succ, N.pow_succ_r'. reflexivity. Qed.

Lemma pow2_nz n : 2 ^ N.of_nat n <> 0.
Proof. apply N.pow_nonzero. discriminate. Qed.

Lemma half_of_mod v p : p <> 0 -> (v mod (2 * p)) / 2 = (v / 2) mod p.
Proof.
  intros Hp. rewrite N.mod_mul_r by (try discriminate; assumption).
  assert (H2 : v mod 2 < 2) by (apply N.mod_lt; discriminate).
  generalize dependent (v mod 2). intros r Hr.
  generalize ((v / 2) mod p). intros q.
  symmetry. apply (N.div_unique _ 2 q r); lia.
Qed.

Lemma parity_of_mod v p : p <> 0 -> (v mod (2 * p)) mod 2 = v mod 2.
Proof.
  intros Hp. rewrite N.mod_mul_r by (try discriminate; assumption).
  assert (H2 : v mod 2 < 2) by (apply N.mod_lt; discriminate).
  generalize dependent (v mod 2). intros r Hr.
  generalize ((v / 2) mod p). intros q.
  symmetry. apply (N.mod_unique _ 2 q r); lia.
Qed.

(* only the low w bits matter *)
Lemma nbits_mod w v : nbits w (v mod 2 ^ N.of_nat w) = nbits w v.
Proof.
  revert v. induction w as [|w IH]; intros v.
  - reflexivity.
  - rewrite !nbits_S, pow2_S.
    rewrite half_of_mod by apply pow2_nz.
    rewrite parity_of_mod by apply pow2_nz.
    rewrite IH. reflexivity.
Qed.

Lemma nbits_split a b v :
  nbits (a + b) v = nbits a (v / 2 ^ N.of_nat b) ++ nbits b v.
Proof.
  revert v. induction b as [|b IH]; intros v.
  - rewrite Nat.add_0_r. cbn [N.of_nat]. rewrite N.pow_0_r, N.div_1_r, nbits_0, app_nil_r.
    reflexivity.
  - rewrite Nat.add_succ_r, !nbits_S, IH, pow2_S.
    rewrite N.div_div by (try discriminate; apply pow2_nz).
    rewrite app_assoc. reflexivity.
Qed.

(* two adjacent fields are the digits of one number *)
Lemma nbits_join a b x y : y < 2 ^ N.of_nat b ->
  nbits (a + b) (x * 2 ^ N.of_nat b + y) = nbits a x ++ nbits b y.
Proof.
  intros H. rewrite nbits_split, <- (nbits_mod b (_ + y)).
  rewrite N.div_add_l, N.div_small, N.add_0_r by (assumption || apply pow2_nz).
  rewrite N.add_comm, N.mod_add, N.mod_small by (assumption || apply pow2_nz).
  reflexivity.
Qed.

Lemma fold_acc l a :
  fold_left (fun a b => 2 * a + b2n b) l a
  = a * 2 ^ N.of_nat (length l) + fold_left (fun a b => 2 * a + b2n b) l 0.
Proof.
  revert a. induction l as [|b l IH]; intros a.
  - cbn [fold_left length N.of_nat]. rewrite N.pow_0_r. lia.
  - cbn [fold_left length]. rewrite pow2_S.
    rewrite (IH (2 * a + b2n b)), (IH (2 * 0 + b2n b)).
    generalize (2 ^ N.of_nat (length l)). intros p.
    generalize (fold_left (fun a0 b0 => 2 * a0 + b2n b0) l 0). intros r. lia.
Qed.

Lemma bits_val_app x y :
  bits_val (x ++ y) = bits_val x * 2 ^ N.of_nat (length y) + bits_val y.
Proof. unfold bits_val. rewrite fold_left_app. apply fold_acc. Qed.

Lemma bits_val_nbits w v : bits_val (nbits w v) = v mod 2 ^ N.of_nat w.
Proof.
  revert v. induction w as [|w IH]; intros v.
  - cbn [N.of_nat]. rewrite N.pow_0_r, N.mod_1_r. reflexivity.
  - rewrite nbits_S, bits_val_app, IH, pow2_S. cbn [length N.of_nat].
    rewrite N.pow_1_r.
    rewrite (N.mod_mul_r v 2) by (try discriminate; apply pow2_nz).
    assert (H2 : v mod 2 < 2) by (apply N.mod_lt; discriminate).
    assert (E : bits_val [v mod 2 =? 1] = v mod 2).
    { unfold bits_val. cbn [fold_left]. destruct (N.eqb_spec (v mod 2) 1) as [e|e].
      - rewrite e. reflexivity.
      - cbn [b2n]. lia. }
    rewrite E. lia.
Qed.

Lemma bits_val_nbits_fits w v : fits w v -> bits_val (nbits w v) = v.
Proof. intros H. rewrite bits_val_nbits. apply N.mod_small. exact H. Qed.

Lemma field_mid x m y : field (x ++ m ++ y) (length x) (length m) = bits_val m.
Proof.
  unfold field. rewrite skipn_app, skipn_all, Nat.sub_diag. cbn [skipn app].
  rewrite firstn_app, firstn_all, Nat.sub_diag. cbn [firstn]. rewrite app_nil_r. reflexivity.
Qed.

Lemma field_prefix x y off n :
  (off + n <= length x)%nat -> field (x ++ y) off n = field x off n.
Proof.
  intros H. unfold field. rewrite skipn_app, firstn_app.
  rewrite skipn_length.
  replace (n - (length x - off))%nat with 0%nat by lia.
  cbn [firstn]. rewrite app_nil_r. reflexivity.
Qed.

Lemma field_at x m y off n :
  length x = off -> length m = n -> field (x ++ m ++ y) off n = bits_val m.
Proof. intros <- <-. apply field_mid. Qed.

(* a field of the digits of v is v shifted and reduced *)
Lemma field_nbits w off n v : (off + n <= w)%nat ->
  field (nbits w v) off n = (v / 2 ^ N.of_nat (w - off - n)) mod 2 ^ N.of_nat n.
Proof.
  intros H. replace w with (off + n + (w - off - n))%nat at 1 by lia.
  rewrite (nbits_split (off + n)), (nbits_split off n), <- app_assoc.
  rewrite field_at by apply nbits_length. apply bits_val_nbits.
Qed.

Lemma agree_mid x m m' y :
  length m = length m' ->
  agree_outside (length x) (length m) (x ++ m ++ y) (x ++ m' ++ y).
Proof.
  intros E. split.
  - rewrite !app_length. lia.
  - intros i [Hi|Hi].
    + rewrite !nth_error_app1 by assumption. reflexivity.
    + rewrite !(nth_error_app2 x) by lia.
      rewrite !nth_error_app2 by lia. rewrite E. reflexivity.
Qed.

Lemma agree_refl off n x : agree_outside off n x x.
Proof. split; auto. Qed.

Lemma layout_bits_app l1 l2 : layout_bits (l1 ++ l2) = layout_bits l1 ++ layout_bits l2.
Proof. unfold layout_bits. apply flat_map_app. Qed.

Lemma layout_bits_cons w v l : layout_bits (F w v :: l) = nbits w v ++ layout_bits l.
Proof. reflexivity. Qed.

Lemma layout_bits_length l : length (layout_bits l) = layout_width l.
Proof.
  induction l as [|[w v] l IH].
  - reflexivity.
  - change ((w, v) :: l) with (F w v :: l). rewrite layout_bits_cons, app_length, nbits_length, IH.
    reflexivity.
Qed.

(* the field at position k of a layout holds exactly the value put there *)
Lemma layout_field l1 w v l2 :
  field (layout_bits (l1 ++ F w v :: l2)) (layout_width l1) w = v mod 2 ^ N.of_nat w.
Proof.
  rewrite layout_bits_app, layout_bits_cons, <- layout_bits_length.
  rewrite <- (nbits_length w v) at 2. rewrite field_mid. apply bits_val_nbits.
Qed.

(* changing the value at position k changes no bit outside that field *)
Lemma layout_agree l1 w v v' l2 :
  agree_outside (layout_width l1) w
    (layout_bits (l1 ++ F w v :: l2)) (layout_bits (l1 ++ F w v' :: l2)).
Proof.
  rewrite !layout_bits_app, !layout_bits_cons, <- layout_bits_length.
  rewrite <- (nbits_length w v) at 1. apply agree_mid. rewrite !nbits_length. reflexivity.
Qed.

Lemma agree_prefix p off n x y :
  agree_outside off n x y -> agree_outside (length p + off) n (p ++ x) (p ++ y).
Proof.
  intros [L A]. split; [rewrite !app_length, L; reflexivity|].
  intros i Hi. destruct (Nat.lt_ge_cases i (length p)) as [Lt|Ge].
  - rewrite !nth_error_app1 by exact Lt. reflexivity.
  - rewrite !nth_error_app2 by exact Ge. apply A. lia.
Qed.

(* the layout with the value of field number k replaced, and the bits that field occupies *)
Fixpoint layout_set (k : nat) (v : N) (l : layout) : layout :=
  match l with
  | [] => []
  | e :: r => match k with O => F (fst e) v :: r | S k' => e :: layout_set k' v r end
  end.

Definition layout_range (k : nat) (l : layout) : nat * nat :=
  (layout_width (firstn k l), fst (nth k l (F 0 0))).

Lemma layout_set_agree k v l :
  agree_outside (fst (layout_range k l)) (snd (layout_range k l))
    (layout_bits (layout_set k v l)) (layout_bits l).
Proof.
  revert k. induction l as [|[w x] l IH]; intros k; [destruct k; apply agree_refl|].
  destruct k as [|k].
  - exact (layout_agree [] w v x l).
  - cbn [layout_set layout_range firstn nth fst snd]. change ((w, x) :: ?r) with (F w x :: r).
    rewrite !layout_bits_cons. cbn [layout_width fold_right fst].
    rewrite <- (nbits_length w x) at 1. apply agree_prefix. exact (IH k).
Qed.

Lemma bits_of_cons b r : bits_of (b :: r) = nbits 8 b ++ bits_of r.
Proof. reflexivity. Qed.

Lemma bits_of_app a b : bits_of (a ++ b) = bits_of a ++ bits_of b.
Proof. unfold bits_of. apply flat_map_app. Qed.

Lemma bits_of_octets bs : layout_bits (octets bs) = bits_of bs.
Proof.
  induction bs as [|b r IH]; [reflexivity|].
  cbn [octets map]. rewrite layout_bits_cons, bits_of_cons. f_equal. exact IH.
Qed.

Lemma bits_of_length bs : length (bits_of bs) = (8 * length bs)%nat.
Proof.
  induction bs as [|b r IH]; [reflexivity|].
  rewrite bits_of_cons, app_length, nbits_length, IH. cbn [length]. lia.
Qed.

(* the fields of one or two octets *)
Lemma field_octet b off n : (off + n <= 8)%nat ->
  field (bits_of [b]) off n = (b / 2 ^ N.of_nat (8 - off - n)) mod 2 ^ N.of_nat n.
Proof.
  intros H. rewrite bits_of_cons. change (bits_of []) with (@nil bool).
  rewrite app_nil_r. apply field_nbits. exact H.
Qed.

Lemma field_octets2 a b off n : b < 256 -> (off + n <= 16)%nat ->
  field (bits_of [a; b]) off n = (be16 a b / 2 ^ N.of_nat (16 - off - n)) mod 2 ^ N.of_nat n.
Proof.
  intros Hb H. rewrite !bits_of_cons. change (bits_of []) with (@nil bool).
  rewrite app_nil_r, <- (nbits_join 8 8) by exact Hb. apply (field_nbits 16). exact H.
Qed.

(* the number whose digits are those of acc followed by the fields of l *)
Fixpoint layout_val (l : layout) (acc : N) : N :=
  match l with
  | [] => acc
  | e :: r => layout_val r (acc * 2 ^ N.of_nat (fst e) + snd e)
  end.

Fixpoint layout_fits (l : layout) : Prop :=
  match l with
  | [] => True
  | e :: r => fits (fst e) (snd e) /\ layout_fits r
  end.

Lemma nbits_layout l : layout_fits l -> forall a acc,
  nbits a acc ++ layout_bits l = nbits (a + layout_width l) (layout_val l acc).
Proof.
  induction l as [|[w v] l IH]; intros Hf a acc.
  - cbn [layout_width fold_right layout_val]. rewrite Nat.add_0_r. apply app_nil_r.
  - destruct Hf as [Hv Hl]. change ((w, v) :: l) with (F w v :: l).
    rewrite layout_bits_cons, app_assoc, <- nbits_join by exact Hv.
    rewrite (IH Hl). cbn [layout_width fold_right layout_val fst snd F].
    rewrite Nat.add_assoc. reflexivity.
Qed.

Lemma layout_bits_val l : layout_fits l ->
  layout_bits l = nbits (layout_width l) (layout_val l 0).
Proof. intros H. exact (nbits_layout l H 0%nat 0). Qed.

(* octets and a layout of the same width that denote the same number have the
   same bits: a statement about shifts and masks becomes one about numbers *)
Lemma bits_by_value bs l : layout_fits (octets bs) -> layout_fits l ->
  layout_width (octets bs) = layout_width l -> layout_val (octets bs) 0 = layout_val l 0 ->
  bits_of bs = layout_bits l.
Proof.
  intros Hb Hl Hw Hv. rewrite <- bits_of_octets.
  rewrite (layout_bits_val _ Hb), (layout_bits_val l Hl), Hw, Hv. reflexivity.
Qed.

(* encodings compose segment by segment *)
Lemma bits_of_layout_app bs l bs' l' :
  bits_of bs = layout_bits l -> bits_of bs' = layout_bits l' ->
  bits_of (bs ++ bs') = layout_bits (l ++ l').
Proof. intros E E'. rewrite bits_of_app, layout_bits_app, E, E'. reflexivity. Qed.

(* big-endian serialisation of integers, as bit strings *)
Lemma nbits8_mod256 v : nbits 8 (v mod 256) = nbits 8 v.
Proof. change 256 with (2 ^ N.of_nat 8). apply nbits_mod. Qed.

Lemma nbits16_bytes v : nbits 8 ((v / 256) mod 256) ++ nbits 8 (v mod 256) = nbits 16 v.
Proof.
  rewrite !nbits8_mod256. change 16%nat with (8 + 8)%nat. rewrite nbits_split. reflexivity.
Qed.

Lemma nbits32_bytes v :
  nbits 8 ((v / 16777216) mod 256) ++ nbits 8 ((v / 65536) mod 256) ++
  nbits 8 ((v / 256) mod 256) ++ nbits 8 (v mod 256) = nbits 32 v.
Proof.
  rewrite !nbits8_mod256.
  change 32%nat with (8 + 24)%nat. rewrite (nbits_split 8 24).
  change 24%nat with (8 + 16)%nat. rewrite (nbits_split 8 16).
  change 16%nat with (8 + 8)%nat. rewrite (nbits_split 8 8).
  change (2 ^ N.of_nat (8 + (8 + 8))) with 16777216.
  change (2 ^ N.of_nat (8 + 8)) with 65536. change (2 ^ N.of_nat 8) with 256.
  reflexivity.
Qed.

Lemma nbits64_bytes v :
  nbits 8 ((v / 72057594037927936) mod 256) ++ nbits 8 ((v / 281474976710656) mod 256) ++
  nbits 8 ((v / 1099511627776) mod 256) ++ nbits 8 ((v / 4294967296) mod 256) ++
  nbits 8 ((v / 16777216) mod 256) ++ nbits 8 ((v / 65536) mod 256) ++
  nbits 8 ((v / 256) mod 256) ++ nbits 8 (v mod 256) = nbits 64 v.
Proof.
  rewrite !nbits8_mod256.
  change 64%nat with (8 + 56)%nat. rewrite (nbits_split 8 56).
  change 56%nat with (8 + 48)%nat. rewrite (nbits_split 8 48).
  change 48%nat with (8 + 40)%nat. rewrite (nbits_split 8 40).
  change 40%nat with (8 + 32)%nat. rewrite (nbits_split 8 32).
  change 32%nat with (8 + 24)%nat. rewrite (nbits_split 8 24).
  change 24%nat with (8 + 16)%nat. rewrite (nbits_split 8 16).
  change 16%nat with (8 + 8)%nat. rewrite (nbits_split 8 8).
  reflexivity.
Qed.

Lemma be16_segment v : bits_of [(v / 256) mod 256; v mod 256] = layout_bits [F 16 v].
Proof.
  rewrite !bits_of_cons, layout_bits_cons. change (bits_of []) with (layout_bits []).
  rewrite app_assoc, nbits16_bytes. reflexivity.
Qed.

Lemma be32_segment v :
  bits_of [(v / 16777216) mod 256; (v / 65536) mod 256; (v / 256) mod 256; v mod 256]
  = layout_bits [F 32 v].
Proof.
  rewrite !bits_of_cons, layout_bits_cons. change (bits_of []) with (layout_bits []).
  rewrite !app_assoc, <- !(app_assoc (nbits 8 _)), nbits32_bytes. reflexivity.
Qed.

(* `&` with a mask of w ones at offset k keeps that field in place *)
Lemma land_field v k w : N.land v (N.ones w * 2 ^ k) = (v / 2 ^ k) mod 2 ^ w * 2 ^ k.
Proof.
  rewrite <- !N.shiftl_mul_pow2, <- N.shiftr_div_pow2, <- N.land_ones.
  apply N.bits_inj. intros i. rewrite N.land_spec.
  destruct (N.lt_ge_cases i k) as [L|L].
  - rewrite !N.shiftl_spec_low by exact L. apply andb_false_r.
  - rewrite !N.shiftl_spec_high' by exact L.
    rewrite N.land_spec, N.shiftr_spec', N.sub_add by exact L. reflexivity.
Qed.

Lemma land_bit v k : N.land v (2 ^ k) = (v / 2 ^ k) mod 2 * 2 ^ k.
Proof. rewrite <- (N.mul_1_l (2 ^ k)) at 1. exact (land_field v k 1). Qed.

Definition range (n : nat) : list N := map N.of_nat (seq 0 n).

Lemma in_range n v : v < N.of_nat n -> In v (range n).
Proof.
  intros H. unfold range. apply in_map_iff. exists (N.to_nat v). split.
  - apply N2Nat.id.
  - apply in_seq. lia.
Qed.

Lemma sweep n (P : N -> bool) :
  forallb P (range n) = true -> forall v, v < N.of_nat n -> P v = true.
Proof. intros H v Hv. rewrite forallb_forall in H. apply H. apply in_range. exact Hv. Qed.

Lemma sweep2 n m (P : N -> N -> bool) :
  forallb (fun a => forallb (P a) (range m)) (range n) = true ->
  forall a b, a < N.of_nat n -> b < N.of_nat m -> P a b = true.
Proof.
  intros H a b Ha Hb. apply (sweep m (P a)); [|exact Hb].
  apply (sweep n (fun a => forallb (P a) (range m)) H a Ha).
Qed.

Lemma sweep3 n m k (P : N -> N -> N -> bool) :
  forallb (fun a => forallb (fun b => forallb (P a b) (range k)) (range m)) (range n) = true ->
  forall a b c, a < N.of_nat n -> b < N.of_nat m -> c < N.of_nat k -> P a b c = true.
Proof.
  intros H a b c Ha Hb Hc. apply (sweep k (P a b)); [|exact Hc].
  apply (sweep2 n m (fun a b => forallb (P a b) (range k)) H a b Ha Hb).
Qed.
