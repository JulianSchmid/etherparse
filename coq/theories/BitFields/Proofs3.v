(* BitFields/Proofs3.v -- lemmas of property C15: the round trips in the form "decode
   returns the new value, the others unchanged"; the rules by which `no_ub` follows
   the structure of a decoder (also used by FromSliceRange.v); the std::io read paths
   and SingleVlanHeader::from_bytes produce only in-range values. *)
From EP Require Import Base.Bytes BitFields.Spec BitFields.Model BitFields.Fields BitFields.BitLemmas
  BitFields.Proofs BitFields.Proofs2.
From Coq Require Import ZArith Lia ZifyN.
Local Open Scope N_scope.

Lemma vlan_roundtrip_all h : vlan_ok h ->
  match SingleVlanHeader_to_bytes h with
  | [b0; b1; b2; b3] =>
      SingleVlanHeader_from_bytes b0 b1 b2 b3 = Val h /\
      SingleVlanHeader_from_slice [b0; b1; b2; b3] = Val h /\
      SingleVlanSlice_decode [b0; b1; b2; b3] = Val h
  | _ => False
  end.
Proof.
  intros H. pose proof (vlan_from_bytes_enc h H) as E.
  unfold SingleVlanHeader_to_bytes in *. cbv beta iota zeta in *.
  match goal with |- SingleVlanHeader_from_bytes ?a ?b ?c ?d = _ /\ _ =>
    destruct (vlan_decoders_same a b c d) as [D1 D2] end.
  rewrite D1, D2. auto.
Qed.

Lemma vlan_set_get f h v : vlan_ok h -> wfits (vlan_range f) v ->
  exists d, SingleVlanHeader_from_slice (SingleVlanHeader_to_bytes (vlan_set f h v)) = Val d /\
    vlan_get f d = v /\ forall g, g <> f -> vlan_get g d = vlan_get g h.
Proof.
  apply (set_get vlan_ok SingleVlanHeader_to_bytes _ vlan_set vlan_get vlan_range vlan_set_ok).
  - intros h' Hh. pose proof (vlan_roundtrip_all h' Hh) as R.
    unfold SingleVlanHeader_to_bytes in R |- *. cbv beta iota zeta in R |- *. tauto.
  - intros f' [pcp dei vid et] v' _ Hf. unfold wfits, fits in Hf. split.
    + destruct f'; cbn [vlan_range snd] in Hf; try reflexivity. pows. apply b2n_nonzero_small. exact Hf.
    + intros g Hg. destruct f', g; try congruence; reflexivity.
Qed.

Lemma ipv4_set_get f h v : ipv4_ok h -> wfits (ipv4_range f) v ->
  exists d, Ipv4Header_from_slice (Ipv4Header_to_bytes (ipv4_set f h v)) = Val d /\
    ipv4_get f d = v /\ forall g, g <> f -> ipv4_get g d = ipv4_get g h.
Proof.
  apply (set_get ipv4_ok Ipv4Header_to_bytes _ ipv4_set ipv4_get ipv4_range ipv4_set_ok ipv4_roundtrip).
  intros f' [dscp ecn tl id df mf fo ttl pr ck src dst opt] v' _ Hf. unfold wfits, fits in Hf. split.
  - destruct f'; cbn [ipv4_range snd] in Hf; try reflexivity; pows; apply b2n_nonzero_small; exact Hf.
  - intros g Hg. destruct f', g; try congruence; reflexivity.
Qed.

Lemma ipv6_set_get f h v : ipv6_ok h -> wfits (ipv6_range f) v ->
  exists d, Ipv6Header_from_slice (Ipv6Header_to_bytes (ipv6_set f h v)) = Val d /\
    ipv6_get f d = v /\ forall g, g <> f -> ipv6_get g d = ipv6_get g h.
Proof.
  apply (set_get ipv6_ok Ipv6Header_to_bytes _ ipv6_set ipv6_get ipv6_range ipv6_set_ok ipv6_roundtrip).
  intros f' [tc fl pl nh hl src dst] v' Hh Hf. unfold wfits, fits in Hf.
  assert (Htc : tc < 256) by (destruct Hh as (A & _); exact A).
  assert (D : fits 6 v' -> Ipv6Header_set_dscp tc v' / 4 = v' /\ Ipv6Header_set_dscp tc v' mod 4 = tc mod 4).
  { unfold fits. pows. intros L.
    pose proof (ipv6_set_dscp_spec tc v' Htc ltac:(unfold IpDscp_MAX_U8; lia)) as (_ & A & B & _). auto. }
  assert (E : fits 2 v' -> Ipv6Header_set_ecn tc v' / 4 = tc / 4 /\ Ipv6Header_set_ecn tc v' mod 4 = v').
  { unfold fits. pows. intros L.
    pose proof (ipv6_set_ecn_spec tc v' Htc ltac:(unfold IpEcn_MAX_U8; lia)) as (_ & A & B & _). auto. }
  split.
  - destruct f'; cbn [ipv6_range snd] in Hf; try reflexivity; [apply D|apply E]; exact Hf.
  - intros g Hg. destruct f', g; try congruence; try reflexivity; cbn [ipv6_range snd] in Hf;
      [apply D|apply E]; exact Hf.
Qed.

Lemma frag_set_get f h v : frag_ok h -> wfits (frag_range f) v ->
  exists d, Ipv6FragmentHeader_from_slice (Ipv6FragmentHeader_to_bytes (frag_set f h v)) = Val d /\
    frag_get f d = v /\ forall g, g <> f -> frag_get g d = frag_get g h.
Proof.
  apply (set_get frag_ok Ipv6FragmentHeader_to_bytes _ frag_set frag_get frag_range frag_set_ok).
  - intros h' Hh. apply frag_roundtrip. exact Hh.
  - intros f' [nh fo mf id] v' _ Hf. unfold wfits, fits in Hf. split.
    + destruct f'; cbn [frag_range snd] in Hf; try reflexivity. pows. apply b2n_nonzero_small. exact Hf.
    + intros g Hg. destruct f', g; try congruence; reflexivity.
Qed.

Lemma macsec_set_get f h v : macsec_settable f = true -> macsec_ok h ->
  wfits (macsec_range f) v -> macsec_decodable (macsec_set f h v) = true ->
  exists d, MacsecHeader_from_slice (MacsecHeader_to_bytes (macsec_set f h v)) = Val d /\
    macsec_get f d = v /\ forall g, g <> f -> macsec_get g d = macsec_get g h.
Proof.
  intros Hs Hh Hf Hd. exists (macsec_set f h v). split; [|split].
  - rewrite (macsec_roundtrip _ (macsec_set_ok f h v Hh Hf)), Hd. reflexivity.
  - unfold wfits, fits in Hf. destruct h as [pt es scb an sl pn sci]; destruct f; try discriminate Hs;
      cbn [macsec_get macsec_set macsec_range snd ms_endstation_id ms_scb ms_an ms_short_len ms_packet_nr] in *;
      try reflexivity; pows; apply b2n_nonzero_small; exact Hf.
  - intros g Hg. destruct h as [pt es scb an sl pn sci]; destruct f; try discriminate Hs; destruct g; try congruence; reflexivity.
Qed.

Lemma no_ub_fail {A} f (P : A -> Prop) : f <> UBRange -> no_ub (Fail f) P.
Proof. intros H. split; [congruence|discriminate]. Qed.

Lemma no_ub_val {A} (a : A) (P : A -> Prop) : P a -> no_ub (Val a) P.
Proof. intros H. split; [discriminate|]. intros x [= <-]. exact H. Qed.

Lemma no_ub_bind {A B} (r : res A) (k : A -> res B) (Q : A -> Prop) (P : B -> Prop) :
  no_ub r Q -> (forall a, Q a -> no_ub (k a) P) -> no_ub (bind r k) P.
Proof.
  intros [Hn Hq] Hk. destruct r as [a|f]; cbn [bind].
  - apply Hk, Hq. reflexivity.
  - apply no_ub_fail. congruence.
Qed.

Lemma no_ub_ite {A} (c : bool) (r1 r2 : res A) P : no_ub r1 P -> no_ub r2 P -> no_ub (if c then r1 else r2) P.
Proof. destruct c; auto. Qed.

Lemma no_ub_getu s i : bytes_ok s -> no_ub (getu s i) (fun b => b < 256).
Proof.
  intros Hs. unfold getu. destruct (rd s i) as [x|] eqn:E.
  - apply no_ub_val. exact (rd_ok _ _ _ Hs E).
  - apply no_ub_fail. discriminate.
Qed.

Lemma no_ub_getu_n s o n : no_ub (getu_n s o n) (fun _ => True).
Proof. unfold getu_n. apply no_ub_ite; [apply no_ub_val; exact I|apply no_ub_fail; discriminate]. Qed.

(* one step of a decoder: an octet read (kept with its bound), a slice read, or a test that rejects *)
Ltac step Hs :=
  first [ eapply no_ub_bind;
          [exact (no_ub_getu _ _ Hs) | let b := fresh "b" in let Hb := fresh "Hb" in intros b Hb]
        | eapply no_ub_bind; [apply no_ub_getu_n | intros ? _]
        | apply no_ub_ite; [apply no_ub_fail; discriminate|] ].

(* reads and tests that construct no bounded value end in a value or in a failure other than UBRange *)
Lemma plain_bind {A B} (r : res A) (k : A -> res B) :
  no_ub r (fun _ => True) -> (forall a, no_ub (k a) (fun _ => True)) -> no_ub (bind r k) (fun _ => True).
Proof. intros Hr Hk. apply (no_ub_bind r k (fun _ => True)); auto. Qed.

Lemma plain_getu s i : no_ub (getu s i) (fun _ => True).
Proof. unfold getu. destruct (rd s i); [apply no_ub_val; exact I|apply no_ub_fail; discriminate]. Qed.

Lemma plain_val {A} (a : A) : no_ub (Val a) (fun _ => True).
Proof. apply no_ub_val. exact I. Qed.

Lemma plain_oob {A} : no_ub (@Fail A OOB) (fun _ => True).
Proof. apply no_ub_fail. discriminate. Qed.

Create HintDb plain.
#[export] Hint Resolve plain_bind plain_getu no_ub_getu_n plain_val plain_oob no_ub_ite : plain.

Lemma Ipv4Header_read_in_range reader : bytes_ok reader -> no_ub (Ipv4Header_read reader) v4_in_range.
Proof.
  intros Hr. unfold Ipv4Header_read. destruct reader as [|first rest]; [apply no_ub_fail; discriminate|].
  apply bytes_ok_cons in Hr. destruct Hr as [Hf Hrest].
  step Hrest. unfold Ipv4Header_read_without_version. step Hrest.
  assert (Hs : bytes_ok (first :: take 19 rest)).
  { apply bytes_ok_cons. split; [exact Hf|]. apply bytes_ok_take. exact Hrest. }
  cbv zeta. repeat step Hs.
  pose proof (dscp_raw_le _ Hb0) as C1. pose proof (land_ones_le b0 2) as C2.
  pose proof (be16_land_le b5 b6 5 Hb6) as C3.
  unfold IpDscp_new_unchecked, IpEcn_new_unchecked, IpFragOffset_new_unchecked,
    IpDscp_MAX_U8, IpEcn_MAX_U8, IpFragOffset_MAX_U16.
  rewrite !unchecked_ok by assumption. cbn [bind].
  repeat step Hs.
  apply no_ub_val. unfold v4_in_range, IpDscp_MAX_U8, IpEcn_MAX_U8, IpFragOffset_MAX_U16.
  cbn [v4_dscp v4_ecn v4_fragment_offset]. auto.
Qed.

Lemma Ipv6Header_read_in_range reader : bytes_ok reader -> no_ub (Ipv6Header_read reader) v6_in_range.
Proof.
  intros Hr. unfold Ipv6Header_read. destruct reader as [|value rest]; [apply no_ub_fail; discriminate|].
  apply bytes_ok_cons in Hr. destruct Hr as [Hf Hrest].
  step Hrest. unfold Ipv6Header_read_without_version. step Hrest.
  assert (Hs : bytes_ok (take 39 rest)) by (apply bytes_ok_take; exact Hrest).
  cbv zeta. repeat step Hs.
  unfold Ipv6FlowLabel_new_unchecked.
  rewrite unchecked_ok by (apply flow_raw_le; assumption). cbn [bind].
  repeat step Hs.
  apply no_ub_val. unfold v6_in_range. cbn [v6_traffic_class v6_flow_label]. split.
  - apply tc_of_octets_lt. assumption.
  - apply flow_raw_le; assumption.
Qed.

Lemma SingleVlanHeader_from_bytes_in_range a b c d : a < 256 -> b < 256 ->
  no_ub (SingleVlanHeader_from_bytes a b c d) vlan_in_range.
Proof.
  intros Ha Hb. pose proof (land_ones_le (N.shiftr a 5) 3) as C1. pose proof (be16_land_le a b 4 Hb) as C2.
  unfold SingleVlanHeader_from_bytes, VlanPcp_new_unchecked, VlanId_new_unchecked, VlanPcp_MAX_U8, VlanId_MAX_U16.
  rewrite !unchecked_ok by assumption. cbn [bind]. apply no_ub_val. unfold vlan_in_range, VlanPcp_MAX_U8, VlanId_MAX_U16. cbn [vlan_pcp vlan_id]. auto.
Qed.
