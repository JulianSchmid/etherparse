(* BitFields/Proofs2.v -- lemmas of property C15: the IGMPv3 query octet, the decoders on
   arbitrary octets (in range, and which bits they read), MACsec. *)
From EP Require Import Base.Bytes Base.Lists BitFields.Spec BitFields.Model BitFields.Fields BitFields.BitLemmas BitFields.Proofs.
From Coq Require Import ZArith Lia ZifyN.
Local Open Scope N_scope.

(* the getters read exactly the RFC 3376 sub-fields; qrv() is never out of range *)
Lemma query_getters raw : raw < 256 ->
  Query_flags raw = raw / 16 /\ b2n (Query_s_flag raw) = (raw / 8) mod 2 /\
  Query_qrv raw = Val (raw mod 8) /\ raw mod 8 <= Qrv_MAX_U8 /\
  nbits 8 raw = layout_bits (igmp_byte8_layout (raw / 16) ((raw / 8) mod 2) (raw mod 8)).
Proof.
  intros H.
  unfold Query_flags, Query_s_flag, Query_qrv, Qrv_new_unchecked, Qrv_MAX_U8, RAW_BYTE_8_MASK_FLAGS,
    RAW_BYTE_8_OFFSET_FLAGS, RAW_BYTE_8_MASK_S_FLAG, RAW_BYTE_8_MASK_QRV.
  rewrite (land_field _ 4 4), N.shiftr_div_pow2, (b2n_nonzero_bit _ 3), (N.land_ones _ 3).
  change (2 ^ 3) with 8. change (2 ^ 4) with 16.
  assert (L : raw mod 8 <= 7) by dmlia. rewrite unchecked_ok by exact L.
  split; [dmlia|]. split; [reflexivity|]. split; [reflexivity|]. split; [exact L|].
  rewrite <- (app_nil_r (nbits 8 raw)). change (bits_of [raw] = layout_bits (igmp_byte8_layout (raw / 16) ((raw / 8) mod 2) (raw mod 8))).
  unfold igmp_byte8_layout. by_value; dmlia.
Qed.

(* set_s_flag sets or clears one bit of one octet *)
Definition ig_chk_s (raw : N) (b : bool) : bool :=
  let r := Query_set_s_flag raw b in
  (r / 16 =? raw / 16) && ((r / 8) mod 2 =? b2n b) && (r mod 8 =? raw mod 8) && (r <? 256).
Lemma ig_sweep_s : forallb (fun raw => ig_chk_s raw false && ig_chk_s raw true) (range 256) = true.
Proof. vm_compute. reflexivity. Qed.

(* each setter changes its own sub-field only; the value stored is the argument
   reduced to the width of the field (set_flags takes any u8: the upper four bits
   of the argument are dropped) *)
Lemma query_setters raw v : raw < 256 -> v < 256 ->
  (let r := Query_set_flags raw v in
   r < 256 /\ r / 16 = v mod 16 /\ (r / 8) mod 2 = (raw / 8) mod 2 /\ r mod 8 = raw mod 8) /\
  (forall b, let r := Query_set_s_flag raw b in
   r < 256 /\ r / 16 = raw / 16 /\ (r / 8) mod 2 = b2n b /\ r mod 8 = raw mod 8) /\
  (let r := Query_set_qrv raw v in
   r < 256 /\ r / 16 = raw / 16 /\ (r / 8) mod 2 = (raw / 8) mod 2 /\ r mod 8 = v mod 8).
Proof.
  intros H Hv. split; [|split].
  - assert (E : Query_set_flags raw v = v mod 16 * 16 + raw mod 16).
    { unfold Query_set_flags, RAW_BYTE_8_MASK_FLAGS, RAW_BYTE_8_OFFSET_FLAGS, shl8.
      change (not8 240) with (N.ones 4).
      rewrite N.land_ones, (land_field _ 4 4), N.shiftl_mul_pow2.
      replace (((v * 2 ^ 4) mod 256 / 2 ^ 4) mod 2 ^ 4) with (v mod 16) by dmlia.
      rewrite N.lor_comm. apply lor_disjoint. apply N.mod_lt. discriminate. }
    cbv zeta. rewrite E. repeat split; dmlia.
  - intros b. pose proof (sweep 256 _ ig_sweep_s raw H) as S. cbv beta in S.
    assert (C : ig_chk_s raw b = true) by (apply andb_prop in S; destruct b; tauto).
    unfold ig_chk_s in C. cbv zeta in C |- *.
    repeat (apply andb_prop in C; destruct C as [C ?]).
    repeat split; (apply N.eqb_eq || apply N.ltb_lt); assumption.
  - assert (E : Query_set_qrv raw v = (raw / 8) mod 32 * 8 + v mod 8).
    { unfold Query_set_qrv, RAW_BYTE_8_MASK_QRV. change (not8 7) with (N.ones 5 * 2 ^ 3).
      rewrite land_field, (N.land_ones _ 3). apply lor_disjoint. apply N.mod_lt. discriminate. }
    cbv zeta. rewrite E. repeat split; dmlia.
Qed.

Ltac q_proj := cbn [q_max_response_code q_group_address q_raw_byte_8 q_qqic q_num_of_sources].

Lemma query_enc_layout t ck : query_ok t ck ->
  bits_of (IgmpQuery_to_bytes t ck) = layout_bits (query_spec_layout t ck).
Proof.
  destruct t as [mrc grp raw qqic ns]. unfold query_ok. q_proj.
  intros (Hm & Hg & Hgl & Hr & Hq & Hn & Hc).
  pose proof (query_getters raw Hr) as (_ & _ & _ & _ & B).
  unfold IgmpQuery_to_bytes, query_spec_layout, igmp_query_layout. q_proj.
  apply (bits_of_layout_app [_; _] [_; _]); [reflexivity|].
  apply (bits_of_layout_app [_; _] [_]); [apply be16_segment|].
  apply bits_of_layout_app; [symmetry; apply bits_of_octets|].
  apply (bits_of_layout_app [_] [_; _; _]).
  { rewrite bits_of_cons. change (bits_of []) with (@nil bool). rewrite app_nil_r. exact B. }
  apply (bits_of_layout_app [_] [_]); [reflexivity|]. apply be16_segment.
Qed.

Lemma query_wfits f v : wfits (igmp_range f) v -> v < 256.
Proof. unfold wfits, fits. destruct f; cbn [igmp_range snd]; pows; lia. Qed.

Lemma query_set_ok f t ck v : query_ok t ck -> wfits (igmp_range f) v -> query_ok (query_set f t v) ck.
Proof.
  destruct t as [mrc grp raw qqic ns]. unfold query_ok, query_set. q_proj.
  intros (Hm & Hg & Hgl & Hr & Hq & Hn & Hc) Hf.
  pose proof (query_setters raw v Hr (query_wfits f v Hf)) as (A & B & C). cbv zeta in A, B, C.
  specialize (B (nonzero v)).
  destruct f; repeat split; try assumption; tauto.
Qed.

(* what a setter stores, read back by the arithmetic getters of the specification *)
Lemma query_get_set f t ck v : query_ok t ck -> wfits (igmp_range f) v ->
  query_get f (query_set f t v) = v /\ forall g, g <> f -> query_get g (query_set f t v) = query_get g t.
Proof.
  intros Hh Hf. pose proof (query_wfits f v Hf) as Hv. destruct t as [mrc grp raw qqic ns].
  assert (Hr : raw < 256) by (destruct Hh as (_ & _ & _ & A & _); exact A).
  pose proof (query_setters raw v Hr Hv) as (A & B & C). cbv zeta in A, B, C. specialize (B (nonzero v)).
  unfold wfits, fits in Hf. unfold query_set, query_get. q_proj. clear Hh.
  destruct f; cbn [igmp_range snd] in Hf; pows.
  - destruct A as (_ & A1 & A2 & A3). split; [rewrite A1; apply N.mod_small; exact Hf|].
    intros g Hg. destruct g; [congruence|exact A2|exact A3].
  - destruct B as (_ & B1 & B2 & B3). split; [rewrite B2; apply b2n_nonzero_small; exact Hf|].
    intros g Hg. destruct g; [exact B1|congruence|exact B3].
  - destruct C as (_ & C1 & C2 & C3). split; [rewrite C3; apply N.mod_small; exact Hf|].
    intros g Hg. destruct g; [exact C1|exact C2|congruence].
Qed.

Definition igmp_idx (f : igmp_field) : nat := match f with IgResv => 7 | IgS => 8 | IgQRV => 9 end.

Lemma query_no_bleed f t ck v : query_ok t ck -> wfits (igmp_range f) v ->
  agree_outside (fst (igmp_range f)) (snd (igmp_range f))
    (bits_of (IgmpQuery_to_bytes (query_set f t v) ck)) (bits_of (IgmpQuery_to_bytes t ck))
  /\ query_get f (query_set f t v) = v
  /\ forall g, g <> f -> query_get g (query_set f t v) = query_get g t.
Proof.
  intros Hh Hf. split; [|exact (query_get_set f t ck v Hh Hf)].
  revert f t v Hh Hf.
  apply (set_no_bleed (fun t => query_ok t ck) (fun t => IgmpQuery_to_bytes t ck)
           (fun t => query_spec_layout t ck) query_set igmp_range igmp_idx).
  - intros t. apply query_enc_layout.
  - intros f t v. apply query_set_ok.
  - intros f [mrc grp raw qqic ns] v Hh Hf.
    assert (Hgl : length grp = 4%nat) by (destruct Hh as (_ & _ & A & _); apply Nat2N.inj; exact A).
    destruct grp as [|g0 [|g1 [|g2 [|g3 [|? ?]]]]]; try discriminate Hgl.
    destruct (query_get_set f _ ck v Hh Hf) as (G & O).
    (* the layout of the new header, through its getters *)
    set (t' := query_set f _ v) in *.
    change (query_spec_layout t' ck)
      with (igmp_query_layout mrc ck [g0; g1; g2; g3] (query_get IgResv t') (query_get IgS t')
              (query_get IgQRV t') qqic ns).
    destruct f.
    + rewrite G, (O IgS), (O IgQRV) by discriminate. split; [reflexivity|eexists; reflexivity].
    + rewrite G, (O IgResv), (O IgQRV) by discriminate. split; [reflexivity|eexists; reflexivity].
    + rewrite G, (O IgResv), (O IgS) by discriminate. split; [reflexivity|eexists; reflexivity].
Qed.

Lemma query_roundtrip t ck : query_ok t ck -> IgmpQuery_from_slice (IgmpQuery_to_bytes t ck) = Val (t, ck).
Proof.
  destruct t as [mrc grp raw qqic ns]. unfold query_ok. q_proj.
  intros (Hm & Hg & Hgl & Hr & Hq & Hn & Hc).
  assert (Hgl' : length grp = 4%nat) by (apply Nat2N.inj; exact Hgl).
  destruct grp as [|g0 [|g1 [|g2 [|g3 [|? ?]]]]]; try discriminate Hgl'.
  unfold IgmpQuery_from_slice, IgmpQuery_to_bytes, getu_n. q_proj. cbn [app].
  match goal with |- context [len ?s <? 8] => set (S := s) end.
  change (len S) with 12. change (12 <? 8) with false. change (4 + 4 <=? 12) with true.
  change (12 =? 8) with false. change (12 <=? 12) with true. cbv iota.
  unfold S. getu_norm. change (17 =? 17) with true. cbn [negb].
  unfold take, drop.
  repeat match goal with
         | |- context [N.to_nat ?k] =>
             let n := eval vm_compute in (N.to_nat k) in change (N.to_nat k) with n
         end.
  cbn [skipn firstn]. rewrite !be16_bytes by assumption. reflexivity.
Qed.

(* a masked value never exceeds the mask *)
Lemma land_ones_le v w : N.land v (N.ones w) <= N.ones w.
Proof.
  rewrite N.land_ones, N.ones_equiv. apply N.lt_le_pred, N.mod_lt, N.pow_nonzero. discriminate.
Qed.

(* the 12 or 13 bit numbers the decoders assemble from a masked octet and a whole one *)
Lemma be16_land_le a b w : b < 256 -> be16 (N.land a (N.ones w)) b <= N.ones (w + 8).
Proof.
  intros Hb. rewrite N.land_ones, N.ones_equiv, N.pow_add_r. unfold be16. change (2 ^ 8) with 256.
  pose proof (N.mod_lt a (2 ^ w) (N.pow_nonzero 2 w ltac:(discriminate))) as H.
  set (p := 2 ^ w) in *. set (x := a mod p) in *. clearbody x p. lia.
Qed.

Lemma dscp_raw_le b : b < 256 -> N.shiftr b 2 <= 63.
Proof. intros Hb. rewrite N.shiftr_div_pow2. dmlia. Qed.

Lemma frag_raw_le a b : a < 256 -> b < 256 -> N.shiftr (be16 a b) 3 <= 8191.
Proof. intros Ha Hb. unfold be16. rewrite N.shiftr_div_pow2. dmlia. Qed.

Lemma unchecked_in_range max x : x <= max ->
  (if x <=? max then Val x else Fail UBRange) <> Fail UBRange /\
  forall v, (if x <=? max then Val x else @Fail N UBRange) = Val v -> v <= max.
Proof.
  intros H. rewrite unchecked_ok by assumption. split; [discriminate|].
  intros v E. injection E as <-. exact H.
Qed.

Lemma fail_in_range f max : f <> UBRange ->
  @Fail N f <> Fail UBRange /\ forall v, @Fail N f = Val v -> v <= max.
Proof. intros H. split; [congruence|discriminate]. Qed.

Ltac rd1 s i b E Hb Hs :=
  unfold getu; destruct (rd s i) as [b|] eqn:E; cbn [bind];
  [pose proof (rd_ok _ _ _ Hs E) as Hb | apply fail_in_range; discriminate].

Lemma VHS_pcp_in_range : acc_in_range VHS_priority_code_point VlanPcp_MAX_U8.
Proof.
  intros s Hs. unfold VHS_priority_code_point. rd1 s 0 b E Hb Hs.
  apply unchecked_in_range. exact (land_ones_le _ 3).
Qed.
Lemma VS_pcp_in_range : acc_in_range VS_priority_code_point VlanPcp_MAX_U8.
Proof. exact VHS_pcp_in_range. Qed.
Lemma VHS_vid_in_range : acc_in_range VHS_vlan_identifier VlanId_MAX_U16.
Proof.
  intros s Hs. unfold VHS_vlan_identifier. rd1 s 0 a Ea Ha Hs. rd1 s 1 b Eb Hb Hs.
  apply unchecked_in_range. exact (be16_land_le a b 4 Hb).
Qed.
Lemma VS_vid_in_range : acc_in_range VS_vlan_identifier VlanId_MAX_U16.
Proof. exact VHS_vid_in_range. Qed.
Lemma V4S_dcp_in_range : acc_in_range V4S_dcp IpDscp_MAX_U8.
Proof.
  intros s Hs. unfold V4S_dcp. rd1 s 1 b E Hb Hs.
  apply unchecked_in_range. exact (dscp_raw_le b Hb).
Qed.
Lemma V4S_ecn_in_range : acc_in_range V4S_ecn IpEcn_MAX_U8.
Proof.
  intros s Hs. unfold V4S_ecn. rd1 s 1 b E Hb Hs.
  apply unchecked_in_range. exact (land_ones_le _ 2).
Qed.
Lemma V4S_fo_in_range : acc_in_range V4S_fragments_offset IpFragOffset_MAX_U16.
Proof.
  intros s Hs. unfold V4S_fragments_offset. rd1 s 6 a Ea Ha Hs. rd1 s 7 b Eb Hb Hs.
  apply unchecked_in_range. exact (be16_land_le a b 5 Hb).
Qed.
Lemma FRS_fo_in_range : acc_in_range FRS_fragment_offset IpFragOffset_MAX_U16.
Proof.
  intros s Hs. unfold FRS_fragment_offset. rd1 s 2 a Ea Ha Hs. rd1 s 3 b Eb Hb Hs.
  apply unchecked_in_range. exact (frag_raw_le a b Ha Hb).
Qed.
Lemma MS_an_in_range : acc_in_range MS_an MacsecAn_MAX_U8.
Proof.
  intros s Hs. unfold MS_an. rd1 s 0 b E Hb Hs.
  apply unchecked_in_range. exact (land_ones_le _ 2).
Qed.
Lemma MS_sl_in_range : acc_in_range MS_short_len MacsecShortLen_MAX_U8.
Proof.
  intros s Hs. unfold MS_short_len. rd1 s 1 b E Hb Hs.
  apply unchecked_in_range. exact (land_ones_le _ 6).
Qed.
Lemma V6S_ecn_in_range : acc_in_range V6S_ecn IpEcn_MAX_U8.
Proof.
  intros s Hs. unfold V6S_ecn, V6S_traffic_class. rd1 s 0 a Ea Ha Hs. rd1 s 1 b Eb Hb Hs.
  apply unchecked_in_range. exact (land_ones_le _ 2).
Qed.
Lemma V6S_dscp_in_range : acc_in_range V6S_dscp IpDscp_MAX_U8.
Proof.
  intros s Hs. unfold V6S_dscp, V6S_traffic_class. rd1 s 0 a Ea Ha Hs. rd1 s 1 b Eb Hb Hs.
  apply unchecked_in_range. exact (land_ones_le _ 6).
Qed.

Lemma flow_raw_le a b c : a < 256 -> b < 256 -> c < 256 -> be32 0 (N.land a 15) b c <= Ipv6FlowLabel_MAX_U32.
Proof.
  intros Ha Hb Hc. pose proof (land_ones_le a 4) as L. change (N.ones 4) with 15 in L.
  unfold be32, Ipv6FlowLabel_MAX_U32. lia.
Qed.

Lemma V6S_flow_in_range : acc_in_range V6S_flow_label Ipv6FlowLabel_MAX_U32.
Proof.
  intros s Hs. unfold V6S_flow_label.
  rd1 s 1 a Ea Ha Hs. rd1 s 2 b Eb Hb Hs. rd1 s 3 c Ec Hc Hs.
  apply unchecked_in_range. apply flow_raw_le; assumption.
Qed.

Lemma Query_qrv_in_range raw : raw < 256 ->
  Query_qrv raw <> Fail UBRange /\ forall v, Query_qrv raw = Val v -> v <= Qrv_MAX_U8.
Proof.
  intros H. pose proof (query_getters raw H) as (_ & _ & E & L & _). rewrite E.
  split; [discriminate|]. intros v [= <-]. exact L.
Qed.

(* what the raw expressions of the decoders read, in the RFC's bit numbering:
   both sides become quotients and remainders of the octets *)
Lemma raw_fields_tci a b : a < 256 -> b < 256 ->
  N.land (N.shiftr a 5) 7 = field (bits_of [a; b]) 0 3 /\
  b2n (nonzero (N.land a 16)) = field (bits_of [a; b]) 3 1 /\
  be16 (N.land a 15) b = field (bits_of [a; b]) 4 12.
Proof.
  intros Ha Hb. rewrite !field_octets2 by (assumption || lia). pows. unfold be16.
  rewrite N.shiftr_div_pow2, (N.land_ones _ 3), (b2n_nonzero_bit _ 4), (N.land_ones _ 4).
  repeat split; dmlia.
Qed.

Lemma raw_fields_ipv4_1 b : b < 256 ->
  N.shiftr b 2 = field (bits_of [b]) 0 6 /\ N.land b 3 = field (bits_of [b]) 6 2.
Proof.
  intros Hb. rewrite !field_octet by lia. pows.
  rewrite N.shiftr_div_pow2, (N.land_ones _ 2). split; dmlia.
Qed.

Lemma raw_fields_ipv4_67 a b : a < 256 -> b < 256 ->
  b2n (nonzero (N.land a 64)) = field (bits_of [a; b]) 1 1 /\
  b2n (nonzero (N.land a 32)) = field (bits_of [a; b]) 2 1 /\
  be16 (N.land a 31) b = field (bits_of [a; b]) 3 13.
Proof.
  intros Ha Hb. rewrite !field_octets2 by (assumption || lia). pows. unfold be16.
  rewrite (b2n_nonzero_bit _ 6), (b2n_nonzero_bit _ 5), (N.land_ones _ 5).
  repeat split; dmlia.
Qed.

Lemma raw_fields_frag a b : a < 256 -> b < 256 ->
  N.shiftr (be16 a b) 3 = field (bits_of [a; b]) 0 13 /\
  b2n (nonzero (N.land b 1)) = field (bits_of [a; b]) 15 1.
Proof.
  intros Ha Hb. rewrite !field_octets2 by (assumption || lia). pows. unfold be16.
  rewrite N.shiftr_div_pow2, (b2n_nonzero_bit _ 0). split; dmlia.
Qed.

Lemma raw_fields_ipv6_01 a b : a < 256 -> b < 256 ->
  let tc := N.lor (shl8 a 4) (N.shiftr b 4) in
  tc = field (bits_of [a; b]) 4 8 /\
  N.land (N.shiftr tc 2) 63 = field (bits_of [a; b]) 4 6 /\
  N.land tc 3 = field (bits_of [a; b]) 10 2 /\
  N.land b 15 = field (bits_of [b]) 4 4.
Proof.
  intros Ha Hb. cbv zeta. rewrite (tc_of_octets a b Hb).
  rewrite !field_octets2, field_octet by (assumption || lia). pows. unfold be16.
  rewrite N.shiftr_div_pow2, (N.land_ones _ 6), (N.land_ones _ 2), (N.land_ones _ 4).
  repeat split; dmlia.
Qed.

Lemma raw_fields_macsec t s : t < 256 -> s < 256 ->
  b2n (nonzero (N.land t 128)) = field (bits_of [t]) 0 1 /\
  b2n (nonzero (N.land t 64)) = field (bits_of [t]) 1 1 /\
  b2n (nonzero (N.land t 32)) = field (bits_of [t]) 2 1 /\
  b2n (nonzero (N.land t 16)) = field (bits_of [t]) 3 1 /\
  b2n (nonzero (N.land t 8)) = field (bits_of [t]) 4 1 /\
  b2n (nonzero (N.land t 4)) = field (bits_of [t]) 5 1 /\
  N.land t 3 = field (bits_of [t]) 6 2 /\
  N.land s 63 = field (bits_of [s]) 2 6.
Proof.
  intros Ht Hs. rewrite !field_octet by lia. pows.
  rewrite (b2n_nonzero_bit _ 7), (b2n_nonzero_bit _ 6), (b2n_nonzero_bit _ 5), (b2n_nonzero_bit _ 4),
    (b2n_nonzero_bit _ 3), (b2n_nonzero_bit _ 2), (N.land_ones _ 2), (N.land_ones _ 6).
  repeat split; dmlia.
Qed.

Definition ms_tci (an : N) (uc enc scb sc es : bool) : N :=
  N.lor (N.lor (N.lor (N.lor (N.lor
    (N.land an 3) (if uc then 4 else 0)) (if enc then 8 else 0)) (if scb then 16 else 0))
    (if sc then 32 else 0)) (if es then 64 else 0).

(* `x | (if b then 1 << k else 0)` on top of the k bits below *)
Lemma lor_flag (x : N) (b : bool) (k : N) : x < 2 ^ k -> N.lor x (if b then 2 ^ k else 0) = x + b2n b * 2 ^ k.
Proof.
  intros H. destruct b; cbn [b2n].
  - rewrite N.lor_comm, N.add_comm, <- (lor_disjoint 1 x k H), N.mul_1_l. reflexivity.
  - rewrite N.lor_0_r, N.add_0_r. reflexivity.
Qed.

Lemma ms_tci_val an uc enc scb sc es : an <= 3 ->
  ms_tci an uc enc scb sc es
  = an + b2n uc * 4 + b2n enc * 8 + b2n scb * 16 + b2n sc * 32 + b2n es * 64.
Proof.
  intros Ha. unfold ms_tci. rewrite (N.land_ones _ 2), N.mod_small by (cbn; lia).
  pose proof (b2n_lt2 uc). pose proof (b2n_lt2 enc). pose proof (b2n_lt2 scb). pose proof (b2n_lt2 sc).
  rewrite (lor_flag _ uc 2), (lor_flag _ enc 3), (lor_flag _ scb 4), (lor_flag _ sc 5), (lor_flag _ es 6)
    by (cbn; lia).
  reflexivity.
Qed.

(* what the TCI/AN octet holds, and what the decoder's masks read back *)
Lemma ms_tci_facts an uc enc scb sc es : an <= 3 ->
  let t := ms_tci an uc enc scb sc es in
  bits_of [t] = layout_bits [F 1 0; F 1 (b2n es); F 1 (b2n sc); F 1 (b2n scb); F 1 (b2n enc); F 1 (b2n uc); F 2 an] /\
  nonzero (N.land t 128) = false /\ (N.land t 12 =? 0) = (negb enc && negb uc)%bool /\
  nonzero (N.land t 64) = es /\ nonzero (N.land t 32) = sc /\ nonzero (N.land t 16) = scb /\
  nonzero (N.land t 8) = enc /\ nonzero (N.land t 4) = uc /\ N.land t 3 = an.
Proof.
  intros Ha. cbv zeta. rewrite (ms_tci_val an uc enc scb sc es Ha).
  pose proof (b2n_lt2 uc). pose proof (b2n_lt2 enc). pose proof (b2n_lt2 scb). pose proof (b2n_lt2 sc).
  pose proof (b2n_lt2 es).
  split; [by_value; lia|].
  split; [apply (nonzero_bit_is _ 7 false); cbn [b2n]; dmlia|].
  split.
  { rewrite (land_field _ 2 2).
    match goal with |- (?q mod 2 ^ 2 * 2 ^ 2 =? 0) = _ => replace (q mod 2 ^ 2) with (b2n uc + b2n enc * 2) by dmlia end.
    destruct enc, uc; reflexivity. }
  split; [apply (nonzero_bit_is _ 6); dmlia|]. split; [apply (nonzero_bit_is _ 5); dmlia|].
  split; [apply (nonzero_bit_is _ 4); dmlia|]. split; [apply (nonzero_bit_is _ 3); dmlia|].
  split; [apply (nonzero_bit_is _ 2); dmlia|].
  rewrite (N.land_ones _ 2). dmlia.
Qed.

Lemma ms_sl_facts sl : sl <= 63 ->
  bits_of [N.land sl 63] = layout_bits [F 2 0; F 6 sl] /\ N.land (N.land sl 63) 63 = sl.
Proof.
  intros Hs. rewrite !(N.land_ones _ 6), !N.mod_small by (cbn; lia).
  split; [by_value; lia|reflexivity].
Qed.

Lemma be_val_bits bs : bytes_ok bs -> be_val bs = bits_val (bits_of bs).
Proof.
  induction bs as [|b r IH]; intros H; [reflexivity|].
  apply bytes_ok_cons in H. destruct H as [Hb Hr].
  cbn [be_val]. rewrite bits_of_cons, bits_val_app, bits_val_nbits, bits_of_length, <- (IH Hr).
  change (2 ^ N.of_nat 8) with 256. rewrite (N.mod_small b 256) by exact Hb.
  rewrite Nat2N.inj_mul, N.pow_mul_r. change (2 ^ N.of_nat 8) with 256. reflexivity.
Qed.

Lemma to_be64_ok v : bytes_ok (to_be64 v).
Proof.
  unfold to_be64. repeat (apply bytes_ok_cons; split; [apply N.mod_lt; discriminate|]). apply bytes_ok_nil.
Qed.

Lemma be64_segment v : bits_of (to_be64 v) = layout_bits [F 64 v].
Proof.
  unfold to_be64. rewrite !bits_of_cons, layout_bits_cons. change (bits_of []) with (layout_bits []).
  rewrite !app_assoc, <- !(app_assoc (nbits 8 _)), nbits64_bytes. reflexivity.
Qed.

Lemma be_val_to_be64 v : v < 18446744073709551616 -> be_val (to_be64 v) = v.
Proof.
  intros H. rewrite (be_val_bits _ (to_be64_ok v)), be64_segment. cbn [layout_bits flat_map fst snd F].
  rewrite app_nil_r, bits_val_nbits. apply N.mod_small. exact H.
Qed.

Ltac ms_proj := cbn [ms_ptype ms_endstation_id ms_scb ms_an ms_short_len ms_packet_nr ms_sci].

(* MacsecHeader::to_bytes without the detour through a fixed array and its truncation *)
Lemma macsec_to_bytes_eq h :
  MacsecHeader_to_bytes h =
  [ms_tci (ms_an h) (MacsecHeader_userdata_changed h) (MacsecHeader_encrypted h) (ms_scb h)
     (is_some (ms_sci h)) (ms_endstation_id h);
   N.land (ms_short_len h) 63;
   be32_0 (ms_packet_nr h); be32_1 (ms_packet_nr h); be32_2 (ms_packet_nr h); be32_3 (ms_packet_nr h)]
  ++ match ms_sci h with Some s => to_be64 s | None => [] end
  ++ match ms_ptype h with Unmodified e => [be16_0 e; be16_1 e] | _ => [] end.
Proof. destruct h as [pt es scb an sl pn [s|]]; destruct pt; reflexivity. Qed.

Lemma macsec_enc_layout h : macsec_ok h ->
  bits_of (MacsecHeader_to_bytes h) = layout_bits (macsec_spec_layout h).
Proof.
  intros (Hp & Ha & Hs & Hn & Hsci). rewrite macsec_to_bytes_eq.
  destruct (ms_tci_facts (ms_an h) (MacsecHeader_userdata_changed h) (MacsecHeader_encrypted h) (ms_scb h)
              (is_some (ms_sci h)) (ms_endstation_id h) Ha) as (T & _).
  destruct (ms_sl_facts _ Hs) as (L & _).
  unfold macsec_spec_layout, macsec_layout.
  apply (bits_of_layout_app [_] [_; _; _; _; _; _; _]); [exact T|].
  apply (bits_of_layout_app [_] [_; _]); [exact L|].
  apply (bits_of_layout_app [_; _; _; _] [_]); [apply be32_segment|].
  apply bits_of_layout_app.
  - destruct (ms_sci h); [apply be64_segment|reflexivity].
  - destruct (ms_ptype h); try reflexivity. apply be16_segment.
Qed.

Lemma layout_agree2 l1 w1 a a' w2 b b' l2 :
  agree_outside (layout_width l1) (w1 + w2)
    (layout_bits (l1 ++ F w1 a :: F w2 b :: l2)) (layout_bits (l1 ++ F w1 a' :: F w2 b' :: l2)).
Proof.
  rewrite !layout_bits_app, !layout_bits_cons, <- layout_bits_length, !app_assoc.
  rewrite <- !(app_assoc (layout_bits l1)).
  replace (w1 + w2)%nat with (length (nbits w1 a ++ nbits w2 b)) by (rewrite app_length, !nbits_length; reflexivity).
  apply agree_mid. rewrite !app_length, !nbits_length. reflexivity.
Qed.

Lemma macsec_set_ok f h v : macsec_ok h -> wfits (macsec_range f) v -> macsec_ok (macsec_set f h v).
Proof.
  destruct h as [pt es scb an sl pn sci]. unfold macsec_ok, wfits, fits, MacsecAn_MAX_U8, MacsecShortLen_MAX_U8.
  ms_proj. intros (Hp & Ha & Hs & Hn & Hsci) Hv.
  destruct f; cbn [macsec_set macsec_range snd] in *; ms_proj; pows; repeat split; try assumption; lia.
Qed.

Definition macsec_idx (f : macsec_field) : nat :=
  match f with
  | MsES => 1 | MsSC => 2 | MsSCB => 3 | MsE => 4 | MsC => 5 | MsAN => 6 | MsSL => 8 | MsPN => 9
  end.

Lemma macsec_no_bleed f h v : macsec_settable f = true -> macsec_ok h -> wfits (macsec_range f) v ->
  agree_outside (fst (macsec_range f)) (snd (macsec_range f))
    (bits_of (MacsecHeader_to_bytes (macsec_set f h v))) (bits_of (MacsecHeader_to_bytes h)).
Proof.
  intros _.
  apply (set_no_bleed macsec_ok _ macsec_spec_layout macsec_set _ macsec_idx macsec_enc_layout macsec_set_ok).
  intros f' [pt es scb an sl pn sci] v' _ _. destruct f'; (split; [reflexivity|eexists; reflexivity]).
Qed.

(* switching between the three payload types without an ether type touches E and C only *)
Lemma macsec_ptype_no_bleed h p : macsec_ok h ->
  is_unmodified (ms_ptype h) = false -> is_unmodified p = false ->
  agree_outside 4 2
    (bits_of (MacsecHeader_to_bytes (macsec_set_ptype h p))) (bits_of (MacsecHeader_to_bytes h)).
Proof.
  intros Hh U1 U2.
  assert (Hh' : macsec_ok (macsec_set_ptype h p)).
  { destruct h as [pt es scb an sl pn sci]. destruct Hh as (A & B). split; [|exact B].
    destruct p; try discriminate U2; exact I. }
  rewrite (macsec_enc_layout _ Hh'), (macsec_enc_layout h Hh).
  destruct h as [pt es scb an sl pn sci].
  destruct pt; try discriminate U1; destruct p; try discriminate U2;
    exact (layout_agree2 [_; _; _; _] 1 _ _ 1 _ _ ([_; _; _; _] ++ _ ++ _)).
Qed.

(* MacsecHeaderSlice::from_slice on a slice of exactly the length its first octet announces *)
Lemma ms_slice_accept t sl r :
  nonzero (N.land t 128) = false ->
  len (t :: sl :: r) = 6 + (if N.land t 12 =? 0 then 2 else 0) + (if nonzero (N.land t 32) then 8 else 0) ->
  MacsecHeaderSlice_from_slice (t :: sl :: r) =
    if (N.land t 12 =? 0) && (N.land sl 63 =? 1) then Fail ErrContent else Val (t :: sl :: r).
Proof.
  intros V L. unfold MacsecHeaderSlice_from_slice. cbv zeta.
  change (getu (t :: sl :: r) 0) with (Val t). change (getu (t :: sl :: r) 1) with (Val sl).
  cbn [bind]. rewrite V.
  destruct (N.ltb_spec (len (t :: sl :: r)) 6) as [A|_].
  { destruct (N.land t 12 =? 0), (nonzero (N.land t 32)); lia. }
  destruct ((N.land t 12 =? 0) && (N.land sl 63 =? 1))%bool; [reflexivity|].
  rewrite <- L, N.ltb_irrefl, take_len. reflexivity.
Qed.

Lemma MS_sci_some t l p0 p1 p2 p3 s r :
  nonzero (N.land t 32) = true -> s < 18446744073709551616 ->
  MS_sci (t :: l :: p0 :: p1 :: p2 :: p3 :: to_be64 s ++ r) = Val (Some s).
Proof.
  intros T H. unfold MS_sci, MS_sci_present. change (getu (t :: _) 0) with (Val t). cbn [bind].
  rewrite T.
  change (t :: l :: p0 :: p1 :: p2 :: p3 :: to_be64 s ++ r) with ([t; l; p0; p1; p2; p3] ++ to_be64 s ++ r).
  rewrite getu_n_app by reflexivity. cbn [bind]. rewrite (be_val_to_be64 s H). reflexivity.
Qed.

Lemma MS_sci_none t r : nonzero (N.land t 32) = false -> MS_sci (t :: r) = Val None.
Proof.
  intros T. unfold MS_sci, MS_sci_present. change (getu (t :: r) 0) with (Val t). cbn [bind].
  rewrite T. reflexivity.
Qed.

Lemma macsec_roundtrip h : macsec_ok h ->
  MacsecHeader_from_slice (MacsecHeader_to_bytes h)
  = (if macsec_decodable h then Val h else Fail ErrContent).
Proof.
  intros (Hp & Ha & Hs & Hn & Hsci). rewrite macsec_to_bytes_eq. unfold macsec_decodable.
  destruct (ms_tci_facts (ms_an h) (MacsecHeader_userdata_changed h) (MacsecHeader_encrypted h) (ms_scb h)
              (is_some (ms_sci h)) (ms_endstation_id h) Ha) as (_ & T1 & T2 & T3 & T4 & T5 & T6 & T7 & T8).
  destruct (ms_sl_facts _ Hs) as (_ & L1).
  pose proof (be32_bytes _ Hn) as Epn.
  destruct h as [pt es scb an sl pn sci]. unfold MacsecAn_MAX_U8, MacsecShortLen_MAX_U8 in *.
  unfold MacsecHeader_userdata_changed, MacsecHeader_encrypted in *.
  cbn [ms_ptype ms_endstation_id ms_scb ms_an ms_short_len ms_packet_nr ms_sci] in *.
  (* from here on the octets of the fixed part are variables *)
  set (t := ms_tci _ _ _ _ _ _) in *. clearbody t.
  set (l := N.land sl 63) in *. clearbody l.
  set (p0 := be32_0 pn) in *. set (p1 := be32_1 pn) in *. set (p2 := be32_2 pn) in *. set (p3 := be32_3 pn) in *.
  clearbody p0 p1 p2 p3.
  unfold MacsecHeader_from_slice.
  destruct pt as [e| | |]; destruct sci as [s|]; cbn [app is_some is_unmodified negb andb] in *.
  all: rewrite ms_slice_accept by (assumption || (rewrite T2, T4; reflexivity)).
  all: rewrite T2, L1; cbn [andb].
  1,2: destruct (sl =? 1); cbn [negb bind]; [reflexivity|].
  all: cbn [bind]; unfold MS_to_header.
  all: rewrite ?MS_sci_some, ?MS_sci_none by assumption.
  all: unfold MS_ptype, MS_encrypted, MS_userdata_changed, MS_endstation_id, MS_tci_scb, MS_an, MS_short_len,
    MS_packet_nr, to_be64; cbn [app]; getu_norm.
  all: rewrite ?T4, T3, T5, T6, T7, T8, L1; cbn [bind]; getu_norm.
  all: unfold MacsecAn_new_unchecked, MacsecShortLen_from_u8_unchecked; rewrite !unchecked_ok by assumption.
  all: cbn [bind]; rewrite Epn, ?be16_bytes by exact Hp; reflexivity.
Qed.
