(* BitFields/Proofs.v -- lemmas of property C15: the bounded types, then per header what
   the encoder's octets hold, no bleeding between fields, and the round trip. *)
From EP Require Import Base.Bytes Base.Lists BitFields.Spec BitFields.Model BitFields.Fields BitFields.BitLemmas.
From Coq Require Import ZArith Lia ZifyN.
Local Open Scope N_scope.

Lemma checked_ctor_intro max w f g u :
  max = 2 ^ N.of_nat w - 1 ->
  (forall v, f v = if v <=? max then TOk v else TErr v max) ->
  (forall v, g v = f v) ->
  (forall v, u v = if v <=? max then Val v else Fail UBRange) ->
  checked_ctor max w f g u.
Proof.
  intros Hm Hf Hg Hu. unfold checked_ctor.
  split; [exact Hm|]. split; [|split; [|split; [exact Hg|split]]].
  - intros v. rewrite Hf. destruct (N.leb_spec v max); split; intros; try lia; try discriminate; reflexivity.
  - intros v Hv. rewrite Hf. destruct (N.leb_spec v max); [lia|reflexivity].
  - intros v. rewrite Hu. destruct (N.leb_spec v max); split; intros; try lia; try discriminate; reflexivity.
  - intros v Hv. rewrite Hu. destruct (N.leb_spec v max); [lia|reflexivity].
Qed.

Ltac ctor := apply checked_ctor_intro; [reflexivity | intros v; reflexivity ..].

Lemma VlanId_ctor : checked_ctor VlanId_MAX_U16 W_VlanId VlanId_try_new VlanId_try_from VlanId_new_unchecked.
Proof. ctor. Qed.
Lemma VlanPcp_ctor : checked_ctor VlanPcp_MAX_U8 W_VlanPcp VlanPcp_try_new VlanPcp_try_from VlanPcp_new_unchecked.
Proof. ctor. Qed.
Lemma IpDscp_ctor : checked_ctor IpDscp_MAX_U8 W_IpDscp IpDscp_try_new IpDscp_try_from IpDscp_new_unchecked.
Proof. ctor. Qed.
Lemma IpFragOffset_ctor : checked_ctor IpFragOffset_MAX_U16 W_IpFragOffset IpFragOffset_try_new IpFragOffset_try_from IpFragOffset_new_unchecked.
Proof. ctor. Qed.
Lemma Ipv6FlowLabel_ctor : checked_ctor Ipv6FlowLabel_MAX_U32 W_Ipv6FlowLabel Ipv6FlowLabel_try_new Ipv6FlowLabel_try_from Ipv6FlowLabel_new_unchecked.
Proof. ctor. Qed.
Lemma MacsecAn_ctor : checked_ctor MacsecAn_MAX_U8 W_MacsecAn MacsecAn_try_new MacsecAn_try_from MacsecAn_new_unchecked.
Proof. ctor. Qed.
Lemma MacsecShortLen_ctor : checked_ctor MacsecShortLen_MAX_U8 W_MacsecShortLen MacsecShortLen_try_from_u8 MacsecShortLen_try_from MacsecShortLen_from_u8_unchecked.
Proof. ctor. Qed.
Lemma Qrv_ctor : checked_ctor Qrv_MAX_U8 W_Qrv Qrv_try_new Qrv_try_from Qrv_new_unchecked.
Proof. ctor. Qed.

(* IpEcn::try_new goes through new_unchecked (a transmute): never UB *)
Lemma IpEcn_ctor :
  IpEcn_MAX_U8 = 2 ^ N.of_nat W_IpEcn - 1 /\
  (forall v, IpEcn_try_new v = Val (TOk v) <-> v <= IpEcn_MAX_U8) /\
  (forall v, IpEcn_MAX_U8 < v -> IpEcn_try_new v = Val (TErr v IpEcn_MAX_U8)) /\
  (forall v, IpEcn_try_from v = IpEcn_try_new v) /\
  (forall v, IpEcn_new_unchecked v = Val v <-> v <= IpEcn_MAX_U8) /\
  (forall v, IpEcn_MAX_U8 < v -> IpEcn_new_unchecked v = Fail UBRange).
Proof.
  unfold IpEcn_try_from, IpEcn_try_new, IpEcn_new_unchecked.
  split; [reflexivity|]. split; [|split; [|split; [reflexivity|split]]].
  - intros v. destruct (N.leb_spec v IpEcn_MAX_U8); cbn [bind]; split; intros; try lia; try discriminate; reflexivity.
  - intros v Hv. destruct (N.leb_spec v IpEcn_MAX_U8); [lia|reflexivity].
  - intros v. destruct (N.leb_spec v IpEcn_MAX_U8); split; intros; try lia; try discriminate; reflexivity.
  - intros v Hv. destruct (N.leb_spec v IpEcn_MAX_U8); [lia|reflexivity].
Qed.

(* MacsecShortLen::from_len never leaves the range, keeps values that fit, maps the rest to 0 *)
Lemma MacsecShortLen_from_len_spec l :
  MacsecShortLen_from_len l <= MacsecShortLen_MAX_U8 /\
  MacsecShortLen_from_len l = (if l <=? 63 then l else 0).
Proof.
  unfold MacsecShortLen_from_len, MacsecShortLen_MAX_U8.
  destruct (N.ltb_spec 63 l); destruct (N.leb_spec l 63); try lia.
Qed.

(* MacsecHeader::set_payload_len: no UB, no overflow, result in range and as documented *)
Lemma MacsecHeader_set_payload_len_spec p n :
  exists sl, MacsecHeader_set_payload_len p n = Val sl /\ sl <= MacsecShortLen_MAX_U8 /\
    sl = (if is_unmodified p then (if n <=? 61 then n + 2 else 0) else (if n <=? 63 then n else 0)).
Proof.
  unfold MacsecHeader_set_payload_len, MacsecShortLen_MAX_USIZE, MacsecShortLen_from_u8_unchecked,
    MacsecShortLen_MAX_U8.
  destruct (is_unmodified p).
  - change (63 - 2) with 61. destruct (N.ltb_spec 61 n); destruct (N.leb_spec n 61); try lia.
    + eexists; repeat split; lia.
    + rewrite (N.mod_small n 256) by lia.
      destruct (N.ltb_spec (n + 2) 256); [|lia].
      destruct (N.leb_spec (n + 2) 63); [|lia]. eexists; repeat split; lia.
  - destruct (N.ltb_spec 63 n); destruct (N.leb_spec n 63); try lia.
    + eexists; repeat split; lia.
    + rewrite (N.mod_small n 256) by lia.
      destruct (N.leb_spec n 63); [|lia]. eexists; repeat split; lia.
Qed.

(* helpers for the partial operations *)
Lemma unchecked_ok (max v : N) : v <= max -> (if v <=? max then Val v else @Fail N UBRange) = Val v.
Proof. intros H. destruct (N.leb_spec v max); [reflexivity|lia]. Qed.

Lemma eqb_true a b : (a =? b) = true -> a = b.
Proof. apply N.eqb_eq. Qed.

Lemma b2n_nonzero_b2n b : nonzero (b2n b) = b.
Proof. destruct b; reflexivity. Qed.

Lemma be16_bytes v : v < 65536 -> be16 (be16_0 v) (be16_1 v) = v.
Proof. unfold be16, be16_0, be16_1. intros H. dmlia. Qed.

Lemma be32_bytes v : v < 4294967296 -> be32 (be32_0 v) (be32_1 v) (be32_2 v) (be32_3 v) = v.
Proof.
  unfold be32, be32_0, be32_1, be32_2, be32_3. intros H.
  replace (v / 65536) with (v / 256 / 256) by (rewrite N.div_div by discriminate; reflexivity).
  replace (v / 16777216) with (v / 256 / 256 / 256) by (rewrite !N.div_div by discriminate; reflexivity).
  assert (H3 : v / 256 / 256 / 256 < 256).
  { rewrite !N.div_div by discriminate. apply N.div_lt_upper_bound; [discriminate|].
    change (256 * 256 * 256 * 256) with 4294967296. exact H. }
  rewrite (N.mod_small (v / 256 / 256 / 256) 256) by exact H3.
  pose proof (N.div_mod v 256 ltac:(discriminate)) as E0.
  pose proof (N.div_mod (v / 256) 256 ltac:(discriminate)) as E1.
  pose proof (N.div_mod (v / 256 / 256) 256 ltac:(discriminate)) as E2.
  generalize dependent (v mod 256). generalize dependent ((v / 256) mod 256).
  generalize dependent ((v / 256 / 256) mod 256).
  generalize dependent (v / 256 / 256 / 256). generalize dependent (v / 256 / 256).
  generalize dependent (v / 256). intros. lia.
Qed.

Ltac pows :=
  repeat match goal with
         | H : context [2 ^ N.of_nat ?n] |- _ =>
             let k := eval vm_compute in (2 ^ N.of_nat n) in change (2 ^ N.of_nat n) with k in H
         | |- context [2 ^ N.of_nat ?n] =>
             let k := eval vm_compute in (2 ^ N.of_nat n) in change (2 ^ N.of_nat n) with k
         end.

(* The encoders build an octet with `<<` and `|` from values that occupy disjoint
   bit ranges: each such octet is first written as a sum ([lor_disjoint]); what it
   holds in the RFC's bit numbering ([bits_by_value]) and what the decoders' `>>`
   and `&` read back from it ([N.shiftr_div_pow2], [N.land_ones], [nonzero_bit])
   are then facts about div and mod by small powers of two, left to [dmlia]. *)

Lemma b2n_lt2 b : b2n b < 2.
Proof. destruct b; reflexivity. Qed.

Lemma b2n_nonzero_small v : v < 2 -> b2n (nonzero v) = v.
Proof. intros H. assert (v = 0 \/ v = 1) as [-> | ->] by lia; reflexivity. Qed.

Lemma shl8_small a k : a * 2 ^ k < 256 -> shl8 a k = a * 2 ^ k.
Proof. intros H. unfold shl8. rewrite N.shiftl_mul_pow2. apply N.mod_small. exact H. Qed.

(* `0 != (v & (1 << k))` is bit k of v *)
Lemma nonzero_bit v k : nonzero (N.land v (2 ^ k)) = ((v / 2 ^ k) mod 2 =? 1).
Proof.
  rewrite land_bit. unfold nonzero.
  pose proof (N.mod_lt (v / 2 ^ k) 2 ltac:(discriminate)) as H.
  set (d := (v / 2 ^ k) mod 2) in *. clearbody d.
  assert (E : d = 0 \/ d = 1) by lia.
  destruct E as [-> | ->]; [reflexivity|].
  rewrite N.mul_1_l. apply Bool.negb_true_iff, N.eqb_neq, N.pow_nonzero. discriminate.
Qed.

Lemma nonzero_bit_is v k b : (v / 2 ^ k) mod 2 = b2n b -> nonzero (N.land v (2 ^ k)) = b.
Proof. intros E. rewrite nonzero_bit, E. destruct b; reflexivity. Qed.

Lemma b2n_nonzero_bit v k : b2n (nonzero (N.land v (2 ^ k))) = (v / 2 ^ k) mod 2.
Proof.
  rewrite nonzero_bit. pose proof (N.mod_lt (v / 2 ^ k) 2 ltac:(discriminate)) as H.
  set (d := (v / 2 ^ k) mod 2) in *. clearbody d.
  destruct (N.eqb_spec d 1); cbn [b2n]; lia.
Qed.

(* [bits_by_value] on explicit lists: the bounds of the octets, the bounds of the
   fields, and the equation between the two numbers *)
Ltac by_value :=
  apply bits_by_value;
  [ cbn [layout_fits octets map fst snd F]; unfold fits; pows
  | cbn [layout_fits fst snd F]; unfold fits; pows
  | reflexivity
  | cbn [layout_val octets map fst snd F]; pows ].

(* What the per-header theorems below have in common: a header type with an encoder whose
   bits are a layout, and a setter per named field that writes one slot of that layout. *)
Section Format.
  Context {H fld : Type}.
  Variables (ok : H -> Prop) (enc : H -> bytes) (dec : bytes -> res H) (lay : H -> layout)
            (set : fld -> H -> N -> H) (get : fld -> H -> N) (range : fld -> nat * nat) (idx : fld -> nat).
  Hypothesis enc_lay : forall h, ok h -> bits_of (enc h) = layout_bits (lay h).
  Hypothesis set_ok : forall f h v, ok h -> wfits (range f) v -> ok (set f h v).
  Hypothesis lay_set : forall f h v, ok h -> wfits (range f) v ->
    range f = layout_range (idx f) (lay h) /\ exists x, lay (set f h v) = layout_set (idx f) x (lay h).
  Hypothesis roundtrip : forall h, ok h -> dec (enc h) = Val h.
  Hypothesis get_set : forall f h v, ok h -> wfits (range f) v ->
    get f (set f h v) = v /\ forall g, g <> f -> get g (set f h v) = get g h.

  (* writing a field changes no bit outside its range *)
  Theorem set_no_bleed f h v : ok h -> wfits (range f) v ->
    agree_outside (fst (range f)) (snd (range f)) (bits_of (enc (set f h v))) (bits_of (enc h)).
  Proof.
    intros Hh Hf. rewrite (enc_lay _ (set_ok f h v Hh Hf)), (enc_lay h Hh).
    destruct (lay_set f h v Hh Hf) as (R & x & E). rewrite R, E. apply layout_set_agree.
  Qed.

  (* decoding after writing a field returns the new value there and the old ones elsewhere *)
  Theorem set_get f h v : ok h -> wfits (range f) v ->
    exists d, dec (enc (set f h v)) = Val d /\ get f d = v /\ forall g, g <> f -> get g d = get g h.
  Proof.
    intros Hh Hf. exists (set f h v). split; [|apply get_set; assumption].
    apply roundtrip, set_ok; assumption.
  Qed.
End Format.

Definition vlan_b0 (pcp : N) (dei : bool) (vid : N) : N :=
  N.lor (if dei then N.lor (be16_0 vid) 16 else be16_0 vid) (shl8 pcp 5).

Lemma vlan_b0_val pcp dei vid : pcp <= 7 -> vid <= 4095 ->
  vlan_b0 pcp dei vid = pcp * 32 + b2n dei * 16 + vid / 256.
Proof.
  intros Hp Hv. unfold vlan_b0, be16_0.
  assert (Hq : vid / 256 < 2 ^ 4) by dmlia.
  rewrite (N.mod_small _ 256), shl8_small by lia.
  assert (E : (if dei then N.lor (vid / 256) 16 else vid / 256) = b2n dei * 16 + vid / 256).
  { destruct dei; [|reflexivity]. rewrite N.lor_comm. exact (lor_disjoint 1 _ 4 Hq). }
  rewrite E, N.lor_comm, lor_disjoint by (pose proof (b2n_lt2 dei); lia).
  lia.
Qed.

(* what the two TCI octets hold, and what the decoder's masks read back *)
Lemma vlan_tci pcp dei vid : pcp <= 7 -> vid <= 4095 ->
  let b0 := vlan_b0 pcp dei vid in let b1 := be16_1 vid in
  bits_of [b0; b1] = layout_bits [F 3 pcp; F 1 (b2n dei); F 12 vid] /\
  N.land (N.shiftr b0 5) 7 = pcp /\ nonzero (N.land b0 16) = dei /\ be16 (N.land b0 15) b1 = vid.
Proof.
  intros Hp Hv. cbv zeta. rewrite (vlan_b0_val pcp dei vid Hp Hv). unfold be16_1, be16.
  pose proof (b2n_lt2 dei) as Hd.
  split; [|split; [|split]].
  - by_value; dmlia.
  - rewrite N.shiftr_div_pow2, (N.land_ones _ 3). dmlia.
  - apply (nonzero_bit_is _ 4). dmlia.
  - rewrite (N.land_ones _ 4). dmlia.
Qed.

Lemma vlan_enc_layout h : vlan_ok h ->
  bits_of (SingleVlanHeader_to_bytes h) = layout_bits (vlan_spec_layout h).
Proof.
  destruct h as [pcp dei vid et]. unfold vlan_ok, VlanPcp_MAX_U8, VlanId_MAX_U16. cbn [vlan_pcp vlan_id vlan_ether_type].
  intros (Hp & Hv & He).
  destruct (vlan_tci pcp dei vid Hp Hv) as (C & _).
  unfold SingleVlanHeader_to_bytes, vlan_spec_layout, vlan_layout.
  cbn [vlan_pcp vlan_dei vlan_id vlan_ether_type]. fold (vlan_b0 pcp dei vid).
  exact (bits_of_layout_app [_; _] [_; _; _] _ _ C (be16_segment et)).
Qed.

Lemma vlan_set_ok f h v : vlan_ok h -> wfits (vlan_range f) v -> vlan_ok (vlan_set f h v).
Proof.
  destruct h as [pcp dei vid et]. unfold vlan_ok, wfits, fits, VlanPcp_MAX_U8, VlanId_MAX_U16.
  intros (Hp & Hv & He) Hf.
  destruct f; cbn [vlan_set vlan_range snd vlan_pcp vlan_dei vlan_id vlan_ether_type] in *;
    repeat split; try assumption; pows; lia.
Qed.

Definition vlan_idx (f : vlan_field) : nat :=
  match f with VlanPCP => 0 | VlanDEI => 1 | VlanVID => 2 | VlanEtherType => 3 end.

Lemma vlan_no_bleed f h v : vlan_ok h -> wfits (vlan_range f) v ->
  agree_outside (fst (vlan_range f)) (snd (vlan_range f))
    (bits_of (SingleVlanHeader_to_bytes (vlan_set f h v))) (bits_of (SingleVlanHeader_to_bytes h)).
Proof.
  apply (set_no_bleed vlan_ok _ vlan_spec_layout vlan_set _ vlan_idx vlan_enc_layout vlan_set_ok).
  intros f' [pcp dei vid et] v' _ _. destruct f'; (split; [reflexivity|eexists; reflexivity]).
Qed.

Lemma vlan_from_bytes_enc h : vlan_ok h ->
  match SingleVlanHeader_to_bytes h with
  | [b0; b1; b2; b3] => SingleVlanHeader_from_bytes b0 b1 b2 b3 = Val h
  | _ => False
  end.
Proof.
  destruct h as [pcp dei vid et]. unfold vlan_ok, VlanPcp_MAX_U8, VlanId_MAX_U16. cbn [vlan_pcp vlan_id vlan_ether_type].
  intros (Hp & Hv & He).
  destruct (vlan_tci pcp dei vid Hp Hv) as (_ & C1 & C2 & C3).
  unfold SingleVlanHeader_to_bytes. cbn [vlan_pcp vlan_dei vlan_id vlan_ether_type].
  fold (vlan_b0 pcp dei vid). unfold SingleVlanHeader_from_bytes.
  rewrite C1, C2, C3, be16_bytes by assumption.
  unfold VlanPcp_new_unchecked, VlanId_new_unchecked, VlanPcp_MAX_U8, VlanId_MAX_U16.
  rewrite !unchecked_ok by assumption. reflexivity.
Qed.

Lemma vlan_decoders_same a b c d :
  SingleVlanHeader_from_slice [a; b; c; d] = SingleVlanHeader_from_bytes a b c d /\
  SingleVlanSlice_decode [a; b; c; d] = SingleVlanHeader_from_bytes a b c d.
Proof. split; reflexivity. Qed.

Lemma getu_n_app (x y z : bytes) o n : len x = o -> len y = n -> getu_n (x ++ y ++ z) o n = Val y.
Proof.
  intros Hx Hy. unfold getu_n. rewrite !len_app, Hx, Hy.
  destruct (N.leb_spec (o + n) (o + (n + len z))); [|lia].
  rewrite (drop_app_len x _ o (eq_sym Hx)), (take_app_len y z n (eq_sym Hy)). reflexivity.
Qed.

Ltac getu_norm :=
  unfold getu, rd;
  repeat match goal with
         | |- context [N.to_nat ?k] =>
             let n := eval vm_compute in (N.to_nat k) in change (N.to_nat k) with n
         end;
  cbn [nth_error bind].

Definition v4_b0 (k : N) : N := N.lor (shl8 4 4) (k + 5).
Definition v4_b1 (dscp ecn : N) : N := N.lor (shl8 dscp 2) ecn.
Definition v4_flags (df mf : bool) : N :=
  let result := 0 in
  let result := if df then N.lor result 64 else result in
  let result := if mf then N.lor result 32 else result in result.
Definition v4_b6 (df mf : bool) (fo : N) : N := N.lor (v4_flags df mf) (N.land (be16_0 fo) 31).

Lemma v4_octet0 k : k <= 10 ->
  let b := v4_b0 k in
  bits_of [b] = layout_bits [F 4 4; F 4 (k + 5)] /\ N.shiftr b 4 = 4 /\ N.land b 15 = k + 5.
Proof.
  intros Hk. cbv zeta.
  assert (E : v4_b0 k = 64 + (k + 5)) by (apply (lor_disjoint 4 _ 4); cbn; lia).
  rewrite E. split; [|split].
  - by_value; lia.
  - rewrite N.shiftr_div_pow2. dmlia.
  - rewrite (N.land_ones _ 4). dmlia.
Qed.

Lemma v4_octet1 dscp ecn : dscp <= 63 -> ecn <= 3 ->
  let b := v4_b1 dscp ecn in
  bits_of [b] = layout_bits [F 6 dscp; F 2 ecn] /\ N.shiftr b 2 = dscp /\ N.land b 3 = ecn.
Proof.
  intros Hd He. cbv zeta.
  assert (E : v4_b1 dscp ecn = dscp * 4 + ecn).
  { unfold v4_b1. rewrite shl8_small by lia. apply (lor_disjoint dscp ecn 2). cbn. lia. }
  rewrite E. split; [|split].
  - by_value; lia.
  - rewrite N.shiftr_div_pow2. dmlia.
  - rewrite (N.land_ones _ 2). dmlia.
Qed.

Lemma v4_b6_val df mf fo : fo <= 8191 -> v4_b6 df mf fo = b2n df * 64 + b2n mf * 32 + fo / 256.
Proof.
  intros Hf. unfold v4_b6, be16_0. rewrite (N.land_ones _ 5).
  assert (E : v4_flags df mf = (b2n df * 2 + b2n mf) * 2 ^ 5) by (destruct df, mf; reflexivity).
  rewrite E, lor_disjoint by (apply N.mod_lt; discriminate).
  dmlia.
Qed.

Lemma v4_octets67 df mf fo : fo <= 8191 ->
  let b6 := v4_b6 df mf fo in let b7 := be16_1 fo in
  bits_of [b6; b7] = layout_bits [F 1 0; F 1 (b2n df); F 1 (b2n mf); F 13 fo] /\
  nonzero (N.land b6 64) = df /\ nonzero (N.land b6 32) = mf /\ be16 (N.land b6 31) b7 = fo.
Proof.
  intros Hf. cbv zeta. rewrite (v4_b6_val df mf fo Hf). unfold be16_1, be16.
  pose proof (b2n_lt2 df). pose proof (b2n_lt2 mf).
  split; [|split; [|split]].
  - by_value; dmlia.
  - apply (nonzero_bit_is _ 6). dmlia.
  - apply (nonzero_bit_is _ 5). dmlia.
  - rewrite (N.land_ones _ 5). dmlia.
Qed.

Ltac v4_proj :=
  cbn [v4_dscp v4_ecn v4_total_len v4_identification v4_dont_fragment v4_more_fragments
       v4_fragment_offset v4_time_to_live v4_protocol v4_header_checksum v4_source v4_destination v4_options fst snd].

Lemma v4_ihl_val h : len (v4_options h) <= 40 -> len (v4_options h) mod 4 = 0 ->
  Ipv4Header_ihl h = len (v4_options h) / 4 + 5 /\
  (20 + len (v4_options h)) / 4 = len (v4_options h) / 4 + 5 /\
  len (v4_options h) / 4 <= 10 /\ (len (v4_options h) / 4 + 5) * 4 = 20 + len (v4_options h).
Proof. unfold Ipv4Header_ihl. generalize (len (v4_options h)). intros n H1 H2. dmlia. Qed.

Lemma ipv4_enc_layout h : ipv4_ok h ->
  bits_of (Ipv4Header_to_bytes h) = layout_bits (ipv4_spec_layout h).
Proof.
  destruct h as [dscp ecn tl id df mf fo ttl pr ck src dst opt].
  unfold ipv4_ok, IpDscp_MAX_U8, IpEcn_MAX_U8, IpFragOffset_MAX_U16.
  v4_proj.
  intros (Hd & He & Htl & Hid & Hfo & Httl & Hpr & Hck & Hs & Hsl & Hdst & Hdl & Ho & Hol & Hom).
  pose proof (v4_ihl_val (mkIpv4 dscp ecn tl id df mf fo ttl pr ck src dst opt) Hol Hom) as (I1 & I2 & I3 & I4).
  cbn [v4_options] in *.
  destruct (v4_octet0 _ I3) as (R & _). destruct (v4_octet1 dscp ecn Hd He) as (P & _).
  destruct (v4_octets67 df mf fo Hfo) as (Q & _).
  unfold Ipv4Header_to_bytes, v4_fixed, v4_frag_and_flags, ipv4_spec_layout, ipv4_layout.
  v4_proj.
  rewrite I1, I2.
  fold (v4_flags df mf). fold (v4_b6 df mf fo). fold (v4_b1 dscp ecn). fold (v4_b0 (len opt / 4)).
  rewrite <- !app_assoc.
  apply (bits_of_layout_app [_] [_; _]); [exact R|].
  apply (bits_of_layout_app [_] [_; _]); [exact P|].
  apply (bits_of_layout_app [_; _] [_]); [apply be16_segment|].
  apply (bits_of_layout_app [_; _] [_]); [apply be16_segment|].
  apply (bits_of_layout_app [_; _] [_; _; _; _]); [exact Q|].
  apply (bits_of_layout_app [_; _] [_; _]); [reflexivity|].
  apply (bits_of_layout_app [_; _] [_]); [apply be16_segment|].
  symmetry. apply bits_of_octets.
Qed.

Lemma ipv4_set_ok f h v : ipv4_ok h -> wfits (ipv4_range f) v -> ipv4_ok (ipv4_set f h v).
Proof.
  destruct h as [dscp ecn tl id df mf fo ttl pr ck src dst opt].
  unfold ipv4_ok, wfits, fits, IpDscp_MAX_U8, IpEcn_MAX_U8, IpFragOffset_MAX_U16.
  intros (Hd & He & Htl & Hid & Hfo & Httl & Hpr & Hck & Hs & Hsl & Hdst & Hdl & Ho & Hol & Hom) Hf.
  destruct f; cbn [ipv4_set ipv4_range snd v4_dscp v4_ecn v4_total_len v4_identification v4_dont_fragment
       v4_more_fragments v4_fragment_offset v4_time_to_live v4_protocol v4_header_checksum v4_source
       v4_destination v4_options] in *;
    repeat split; try assumption; pows; lia.
Qed.

Definition ipv4_idx (f : ipv4_field) : nat :=
  match f with
  | V4Dscp => 2 | V4Ecn => 3 | V4TotalLen => 4 | V4Ident => 5 | V4DF => 7 | V4MF => 8
  | V4FragOff => 9 | V4Ttl => 10 | V4Proto => 11 | V4Checksum => 12
  end.

Lemma ipv4_no_bleed f h v : ipv4_ok h -> wfits (ipv4_range f) v ->
  agree_outside (fst (ipv4_range f)) (snd (ipv4_range f))
    (bits_of (Ipv4Header_to_bytes (ipv4_set f h v))) (bits_of (Ipv4Header_to_bytes h)).
Proof.
  apply (set_no_bleed ipv4_ok _ ipv4_spec_layout ipv4_set _ ipv4_idx ipv4_enc_layout ipv4_set_ok).
  intros f' [dscp ecn tl id df mf fo ttl pr ck src dst opt] v' _ _.
  destruct f'; (split; [reflexivity|eexists; reflexivity]).
Qed.

(* Ipv4HeaderSlice::from_slice on a slice of exactly the length its first octet announces *)
Lemma v4_slice_accept b0 r :
  N.shiftr b0 4 = 4 -> 5 <= N.land b0 15 -> len (b0 :: r) = N.land b0 15 * 4 ->
  Ipv4HeaderSlice_from_slice (b0 :: r) = Val (b0 :: r).
Proof.
  intros V I L. unfold Ipv4HeaderSlice_from_slice. cbv zeta.
  change (getu (b0 :: r) 0) with (Val b0). cbn [bind]. rewrite V. change (4 =? 4) with true. cbn [negb].
  destruct (N.ltb_spec (len (b0 :: r)) 20); [lia|].
  destruct (N.ltb_spec (N.land b0 15) 5); [lia|].
  rewrite <- L, N.ltb_irrefl, take_len. reflexivity.
Qed.

(* to_header on twelve octets followed by the two addresses and the options *)
Lemma V4S_to_header_eval b0 b1 t0 t1 i0 i1 b6 b7 ttl pr c0 c1 src dst opt :
  len src = 4 -> len dst = 4 ->
  V4S_to_header (b0 :: b1 :: t0 :: t1 :: i0 :: i1 :: b6 :: b7 :: ttl :: pr :: c0 :: c1 :: src ++ dst ++ opt) =
  (dscp <- IpDscp_new_unchecked (N.shiftr b1 2) ;; ecn <- IpEcn_new_unchecked (N.land b1 3) ;;
   fo <- IpFragOffset_new_unchecked (be16 (N.land b6 31) b7) ;;
   Val (mkIpv4 dscp ecn (be16 t0 t1) (be16 i0 i1) (nonzero (N.land b6 64)) (nonzero (N.land b6 32)) fo
          ttl pr (be16 c0 c1) src dst opt)).
Proof.
  intros Hs Hd.
  unfold V4S_to_header, V4S_dcp, V4S_ecn, V4S_total_len, V4S_identification, V4S_dont_fragment,
    V4S_more_fragments, V4S_fragments_offset, V4S_ttl, V4S_protocol, V4S_header_checksum.
  getu_norm.
  set (pre := [b0; b1; t0; t1; i0; i1; b6; b7; ttl; pr; c0; c1]).
  change (b0 :: b1 :: t0 :: t1 :: i0 :: i1 :: b6 :: b7 :: ttl :: pr :: c0 :: c1 :: src ++ dst ++ opt)
    with (pre ++ src ++ dst ++ opt).
  assert (E1 : V4S_source (pre ++ src ++ dst ++ opt) = Val src) by (apply getu_n_app; [reflexivity|exact Hs]).
  assert (E2 : V4S_destination (pre ++ src ++ dst ++ opt) = Val dst).
  { unfold V4S_destination. rewrite (app_assoc pre). apply getu_n_app; [rewrite len_app, Hs; reflexivity|exact Hd]. }
  assert (E3 : V4S_options (pre ++ src ++ dst ++ opt) = Val opt).
  { unfold V4S_options. rewrite (app_assoc pre), (app_assoc (pre ++ src)).
    assert (L : len ((pre ++ src) ++ dst) = 20) by (rewrite !len_app, Hs, Hd; reflexivity).
    rewrite len_app, L, (drop_app_len _ opt 20 (eq_sym L)).
    destruct (N.leb_spec 20 (20 + len opt)); [reflexivity|lia]. }
  rewrite E1, E2, E3. reflexivity.
Qed.

Lemma ipv4_roundtrip h : ipv4_ok h -> Ipv4Header_from_slice (Ipv4Header_to_bytes h) = Val h.
Proof.
  destruct h as [dscp ecn tl id df mf fo ttl pr ck src dst opt].
  unfold ipv4_ok, IpDscp_MAX_U8, IpEcn_MAX_U8, IpFragOffset_MAX_U16.
  v4_proj.
  intros (Hd & He & Htl & Hid & Hfo & Httl & Hpr & Hck & Hs & Hsl & Hdst & Hdl & Ho & Hol & Hom).
  pose proof (v4_ihl_val (mkIpv4 dscp ecn tl id df mf fo ttl pr ck src dst opt) Hol Hom) as (I1 & I2 & I3 & I4).
  cbn [v4_options] in *.
  destruct (v4_octet0 _ I3) as (_ & R1 & R2). destruct (v4_octet1 dscp ecn Hd He) as (_ & P1 & P2).
  destruct (v4_octets67 df mf fo Hfo) as (_ & Q1 & Q2 & Q3).
  unfold Ipv4Header_from_slice, Ipv4Header_to_bytes, v4_fixed, v4_frag_and_flags.
  v4_proj.
  rewrite I1.
  fold (v4_flags df mf). fold (v4_b6 df mf fo). fold (v4_b1 dscp ecn). fold (v4_b0 (len opt / 4)).
  rewrite <- !app_assoc. cbn [app].
  rewrite v4_slice_accept.
  - cbn [bind]. rewrite (V4S_to_header_eval _ _ _ _ _ _ _ _ _ _ _ _ src dst opt Hsl Hdl).
    rewrite P1, P2, Q1, Q2, Q3, !be16_bytes by assumption.
    unfold IpDscp_new_unchecked, IpEcn_new_unchecked, IpFragOffset_new_unchecked,
      IpDscp_MAX_U8, IpEcn_MAX_U8, IpFragOffset_MAX_U16.
    rewrite !unchecked_ok by assumption. reflexivity.
  - exact R1.
  - rewrite R2. clear. lia.
  - rewrite R2, I4, !len_cons, !len_app, Hsl, Hdl. clear. lia.
Qed.

(* the traffic class as the decoders assemble it from octets 0 and 1 *)
Lemma tc_of_octets a b : b < 256 -> N.lor (shl8 a 4) (N.shiftr b 4) = a mod 16 * 16 + b / 16.
Proof.
  intros Hb. unfold shl8. rewrite N.shiftl_mul_pow2, N.shiftr_div_pow2.
  replace ((a * 2 ^ 4) mod 256) with (a mod 16 * 2 ^ 4) by dmlia.
  apply lor_disjoint. dmlia.
Qed.

Lemma tc_of_octets_lt a b : b < 256 -> N.lor (shl8 a 4) (N.shiftr b 4) < 256.
Proof. intros Hb. rewrite (tc_of_octets a b Hb). dmlia. Qed.

Definition v6_b0 (tc : N) : N := N.lor (shl8 6 4) (N.shiftr tc 4).
Definition v6_b1 (tc flhi : N) : N := N.lor (shl8 tc 4) flhi.

(* the first four octets: version, traffic class, flow label *)
Lemma v6_word0 tc fl : tc < 256 -> fl <= 1048575 ->
  let b0 := v6_b0 tc in let b1 := v6_b1 tc (be32_1 fl) in
  bits_of [b0; b1; be32_2 fl; be32_3 fl] = layout_bits [F 4 6; F 8 tc; F 20 fl] /\
  N.shiftr b0 4 = 6 /\ N.lor (shl8 b0 4) (N.shiftr b1 4) = tc /\
  be32 0 (N.land b1 15) (be32_2 fl) (be32_3 fl) = fl.
Proof.
  intros Htc Hfl. cbv zeta.
  assert (E0 : v6_b0 tc = 96 + tc / 16).
  { unfold v6_b0. rewrite N.shiftr_div_pow2. apply (lor_disjoint 6 _ 4). dmlia. }
  assert (E1 : v6_b1 tc (be32_1 fl) = tc mod 16 * 16 + fl / 65536).
  { unfold v6_b1, be32_1, shl8. rewrite N.shiftl_mul_pow2.
    replace ((tc * 2 ^ 4) mod 256) with (tc mod 16 * 2 ^ 4) by dmlia.
    rewrite lor_disjoint by dmlia. dmlia. }
  rewrite tc_of_octets by (rewrite E1; dmlia). rewrite E0, E1. unfold be32_2, be32_3, be32.
  split; [|split; [|split]].
  - by_value; dmlia.
  - rewrite N.shiftr_div_pow2. dmlia.
  - dmlia.
  - rewrite (N.land_ones _ 4). dmlia.
Qed.

(* the crate's DSCP/ECN accessors of the IPv6 traffic class *)
Lemma ipv6_tc_accessors tc : tc < 256 ->
  Ipv6Header_dscp tc = Val (tc / 4) /\ Ipv6Header_ecn tc = Val (tc mod 4) /\
  tc / 4 <= IpDscp_MAX_U8 /\ tc mod 4 <= IpEcn_MAX_U8.
Proof.
  intros H.
  unfold Ipv6Header_dscp, Ipv6Header_ecn, IpDscp_new_unchecked, IpEcn_new_unchecked, IpDscp_MAX_U8, IpEcn_MAX_U8.
  rewrite N.shiftr_div_pow2, (N.land_ones _ 6), (N.land_ones _ 2).
  replace ((tc / 2 ^ 2) mod 2 ^ 6) with (tc / 4) by dmlia. change (2 ^ 2) with 4.
  assert (tc / 4 <= 63) by dmlia. assert (tc mod 4 <= 3) by dmlia.
  rewrite !unchecked_ok by assumption. auto.
Qed.

(* Ipv6Header::set_dscp / set_ecn replace one of the two parts of the traffic class *)
Lemma set_dscp_val tc d : d <= 63 -> Ipv6Header_set_dscp tc d = d * 4 + tc mod 4.
Proof.
  intros Hd. unfold Ipv6Header_set_dscp.
  rewrite (N.land_ones _ 2), (land_field _ 2 6), shl8_small by lia.
  replace ((d * 2 ^ 2 / 2 ^ 2) mod 2 ^ 6) with d by dmlia.
  rewrite N.lor_comm. apply lor_disjoint. apply N.mod_lt. discriminate.
Qed.

Lemma set_ecn_val tc e : Ipv6Header_set_ecn tc e = (tc / 4) mod 64 * 4 + e mod 4.
Proof.
  unfold Ipv6Header_set_ecn. rewrite (N.land_ones _ 2), (land_field _ 2 6).
  apply lor_disjoint. apply N.mod_lt. discriminate.
Qed.

Lemma ipv6_set_dscp_spec tc d : tc < 256 -> d <= IpDscp_MAX_U8 ->
  let t := Ipv6Header_set_dscp tc d in
  t < 256 /\ t / 4 = d /\ t mod 4 = tc mod 4 /\ Ipv6Header_dscp t = Val d /\ Ipv6Header_ecn t = Val (tc mod 4).
Proof.
  unfold IpDscp_MAX_U8. intros H Hd. cbv zeta. rewrite (set_dscp_val tc d Hd).
  assert (L : d * 4 + tc mod 4 < 256) by dmlia.
  pose proof (ipv6_tc_accessors _ L) as (A1 & A2 & _). rewrite A1, A2.
  replace ((d * 4 + tc mod 4) / 4) with d by dmlia.
  replace ((d * 4 + tc mod 4) mod 4) with (tc mod 4) by dmlia. auto.
Qed.

Lemma ipv6_set_ecn_spec tc e : tc < 256 -> e <= IpEcn_MAX_U8 ->
  let t := Ipv6Header_set_ecn tc e in
  t < 256 /\ t / 4 = tc / 4 /\ t mod 4 = e /\ Ipv6Header_dscp t = Val (tc / 4) /\ Ipv6Header_ecn t = Val e.
Proof.
  unfold IpEcn_MAX_U8. intros H He. cbv zeta. rewrite (set_ecn_val tc e).
  assert (L : (tc / 4) mod 64 * 4 + e mod 4 < 256) by dmlia.
  pose proof (ipv6_tc_accessors _ L) as (A1 & A2 & _). rewrite A1, A2.
  replace (((tc / 4) mod 64 * 4 + e mod 4) / 4) with (tc / 4) by dmlia.
  replace (((tc / 4) mod 64 * 4 + e mod 4) mod 4) with e by dmlia. auto.
Qed.

Lemma tc_split tc : nbits 8 tc = nbits 6 (tc / 4) ++ nbits 2 (tc mod 4).
Proof.
  change 8%nat with (6 + 2)%nat. rewrite nbits_split. change (2 ^ N.of_nat 2) with 4.
  rewrite <- (nbits_mod 2 tc). reflexivity.
Qed.

Ltac v6_proj := cbn [v6_traffic_class v6_flow_label v6_payload_length v6_next_header v6_hop_limit v6_source v6_destination].

Lemma ipv6_enc_layout h : ipv6_ok h ->
  bits_of (Ipv6Header_to_bytes h) = layout_bits (ipv6_spec_layout h).
Proof.
  destruct h as [tc fl pl nh hl src dst]. unfold ipv6_ok, Ipv6FlowLabel_MAX_U32. v6_proj.
  intros (Htc & Hfl & Hpl & Hnh & Hhl & Hs & Hsl & Hd & Hdl).
  destruct (v6_word0 tc fl Htc Hfl) as (C & _).
  unfold Ipv6Header_to_bytes, ipv6_spec_layout, ipv6_layout. v6_proj.
  fold (v6_b0 tc). fold (v6_b1 tc (be32_1 fl)).
  apply (bits_of_layout_app [_; _; _; _] [_; _; _]); [exact C|].
  apply (bits_of_layout_app [_; _] [_]); [apply be16_segment|].
  apply (bits_of_layout_app [_; _] [_; _]); [reflexivity|].
  symmetry. apply bits_of_octets.
Qed.

Lemma ipv6_enc_layout_ds h : ipv6_ok h ->
  bits_of (Ipv6Header_to_bytes h) = layout_bits (ipv6_spec_layout_ds h).
Proof.
  intros H. rewrite (ipv6_enc_layout h H). destruct h as [tc fl pl nh hl src dst].
  unfold ipv6_spec_layout, ipv6_spec_layout_ds, ipv6_layout, ipv6_layout_ds. v6_proj.
  rewrite !layout_bits_app, !layout_bits_cons. rewrite (tc_split tc). rewrite <- !app_assoc. reflexivity.
Qed.

Lemma ipv6_set_ok f h v : ipv6_ok h -> wfits (ipv6_range f) v -> ipv6_ok (ipv6_set f h v).
Proof.
  destruct h as [tc fl pl nh hl src dst]. unfold ipv6_ok, wfits, fits, Ipv6FlowLabel_MAX_U32.
  intros (Htc & Hfl & Hpl & Hnh & Hhl & Hs & Hsl & Hd & Hdl) Hf.
  destruct f; cbn [ipv6_set ipv6_range snd] in *; v6_proj; pows.
  - pose proof (ipv6_set_dscp_spec tc v Htc ltac:(unfold IpDscp_MAX_U8; lia)) as (A & _). tauto.
  - pose proof (ipv6_set_ecn_spec tc v Htc ltac:(unfold IpEcn_MAX_U8; lia)) as (A & _). tauto.
  - repeat split; try assumption; lia.
  - repeat split; try assumption; lia.
  - repeat split; try assumption; lia.
  - repeat split; try assumption; lia.
Qed.

Definition ipv6_idx (f : ipv6_field) : nat :=
  match f with
  | V6Dscp => 1 | V6Ecn => 2 | V6FlowLabel => 3 | V6PayloadLen => 4 | V6NextHeader => 5 | V6HopLimit => 6
  end.

Lemma ipv6_no_bleed f h v : ipv6_ok h -> wfits (ipv6_range f) v ->
  agree_outside (fst (ipv6_range f)) (snd (ipv6_range f))
    (bits_of (Ipv6Header_to_bytes (ipv6_set f h v))) (bits_of (Ipv6Header_to_bytes h)).
Proof.
  apply (set_no_bleed ipv6_ok _ ipv6_spec_layout_ds ipv6_set _ ipv6_idx ipv6_enc_layout_ds ipv6_set_ok).
  intros f' [tc fl pl nh hl src dst] v' Hh Hf.
  assert (Htc : tc < 256) by (destruct Hh as (A & _); exact A).
  unfold wfits, fits in Hf.
  destruct f'; cbn [ipv6_set ipv6_range snd] in *; (split; [reflexivity|]);
    unfold ipv6_spec_layout_ds; v6_proj; pows.
  - pose proof (ipv6_set_dscp_spec tc v' Htc ltac:(unfold IpDscp_MAX_U8; lia)) as (_ & A & B & _).
    rewrite A, B. eexists; reflexivity.
  - pose proof (ipv6_set_ecn_spec tc v' Htc ltac:(unfold IpEcn_MAX_U8; lia)) as (_ & A & B & _).
    rewrite A, B. eexists; reflexivity.
  - eexists; reflexivity.
  - eexists; reflexivity.
  - eexists; reflexivity.
  - eexists; reflexivity.
Qed.

Lemma v6_slice_accept b0 r : N.shiftr b0 4 = 6 -> len (b0 :: r) = 40 ->
  Ipv6HeaderSlice_from_slice (b0 :: r) = Val (b0 :: r).
Proof.
  intros V L. unfold Ipv6HeaderSlice_from_slice. cbv zeta. rewrite L. change (40 <? 40) with false.
  change (getu (b0 :: r) 0) with (Val b0). cbn [bind]. rewrite V. change (6 =? 6) with true. cbn [negb].
  rewrite <- L, take_len. reflexivity.
Qed.

(* to_header on eight octets followed by the two addresses *)
Lemma V6S_to_header_eval b0 b1 b2 b3 p0 p1 nh hl src dst : len src = 16 -> len dst = 16 ->
  V6S_to_header (b0 :: b1 :: b2 :: b3 :: p0 :: p1 :: nh :: hl :: src ++ dst) =
  (fl <- Ipv6FlowLabel_new_unchecked (be32 0 (N.land b1 15) b2 b3) ;;
   Val (mkIpv6 (N.lor (shl8 b0 4) (N.shiftr b1 4)) fl (be16 p0 p1) nh hl src dst)).
Proof.
  intros Hs Hd.
  unfold V6S_to_header, V6S_traffic_class, V6S_flow_label, V6S_payload_length, V6S_next_header, V6S_hop_limit.
  getu_norm.
  set (pre := [b0; b1; b2; b3; p0; p1; nh; hl]).
  change (b0 :: b1 :: b2 :: b3 :: p0 :: p1 :: nh :: hl :: src ++ dst) with (pre ++ src ++ dst).
  assert (E1 : V6S_source (pre ++ src ++ dst) = Val src) by (apply getu_n_app; [reflexivity|exact Hs]).
  assert (E2 : V6S_destination (pre ++ src ++ dst) = Val dst).
  { unfold V6S_destination. rewrite (app_assoc pre). rewrite <- (app_nil_r dst) at 1.
    apply getu_n_app; [rewrite len_app, Hs; reflexivity|exact Hd]. }
  rewrite E1, E2. reflexivity.
Qed.

Lemma ipv6_roundtrip h : ipv6_ok h -> Ipv6Header_from_slice (Ipv6Header_to_bytes h) = Val h.
Proof.
  destruct h as [tc fl pl nh hl src dst]. unfold ipv6_ok, Ipv6FlowLabel_MAX_U32. v6_proj.
  intros (Htc & Hfl & Hpl & Hnh & Hhl & Hs & Hsl & Hd & Hdl).
  destruct (v6_word0 tc fl Htc Hfl) as (_ & W1 & W2 & W3).
  unfold Ipv6Header_from_slice, Ipv6Header_to_bytes. v6_proj.
  fold (v6_b0 tc). fold (v6_b1 tc (be32_1 fl)). cbn [app].
  rewrite v6_slice_accept.
  - cbn [bind]. rewrite (V6S_to_header_eval _ _ _ _ _ _ _ _ src dst Hsl Hdl).
    rewrite W2, W3, be16_bytes by assumption.
    unfold Ipv6FlowLabel_new_unchecked, Ipv6FlowLabel_MAX_U32. rewrite unchecked_ok by assumption. reflexivity.
  - exact W1.
  - rewrite !len_cons, len_app, Hsl, Hdl. reflexivity.
Qed.

Definition fr_fo16 (fo : N) (mf : bool) : N := N.lor (shl16 fo 3) (if mf then 1 else 0).

Lemma fr_octets23 fo mf : fo <= 8191 ->
  let b2 := be16_0 (fr_fo16 fo mf) in let b3 := be16_1 (fr_fo16 fo mf) in
  bits_of [b2; b3] = layout_bits [F 13 fo; F 2 0; F 1 (b2n mf)] /\
  N.shiftr (be16 b2 b3) 3 = fo /\ nonzero (N.land b3 1) = mf.
Proof.
  intros Hf. cbv zeta. pose proof (b2n_lt2 mf) as Hm.
  assert (E : fr_fo16 fo mf = fo * 8 + b2n mf).
  { unfold fr_fo16, shl16. rewrite N.shiftl_mul_pow2, N.mod_small by lia.
    exact (lor_disjoint fo (b2n mf) 3 ltac:(lia)). }
  rewrite E. unfold be16_0, be16_1, be16.
  split; [|split].
  - by_value; dmlia.
  - rewrite N.shiftr_div_pow2. dmlia.
  - apply (nonzero_bit_is _ 0). dmlia.
Qed.

Ltac fr_proj := cbn [fr_next_header fr_fragment_offset fr_more_fragments fr_identification].

Lemma frag_enc_layout h : frag_ok h ->
  bits_of (Ipv6FragmentHeader_to_bytes h) = layout_bits (frag_spec_layout h).
Proof.
  destruct h as [nh fo mf id]. unfold frag_ok, IpFragOffset_MAX_U16. fr_proj. intros (Hn & Hf & Hi).
  destruct (fr_octets23 fo mf Hf) as (C & _).
  unfold Ipv6FragmentHeader_to_bytes, frag_spec_layout, frag_layout. fr_proj. fold (fr_fo16 fo mf).
  apply (bits_of_layout_app [_; _] [_; _]); [reflexivity|].
  apply (bits_of_layout_app [_; _] [_; _; _]); [exact C|].
  apply be32_segment.
Qed.

Lemma frag_set_ok f h v : frag_ok h -> wfits (frag_range f) v -> frag_ok (frag_set f h v).
Proof.
  destruct h as [nh fo mf id]. unfold frag_ok, wfits, fits, IpFragOffset_MAX_U16.
  intros (Hn & Hf & Hi) Hv.
  destruct f; cbn [frag_set frag_range snd] in *; fr_proj; pows; repeat split; try assumption; lia.
Qed.

Definition frag_idx (f : frag_field) : nat :=
  match f with FrNextHeader => 0 | FrOffset => 2 | FrMore => 4 | FrIdent => 5 end.

Lemma frag_no_bleed f h v : frag_ok h -> wfits (frag_range f) v ->
  agree_outside (fst (frag_range f)) (snd (frag_range f))
    (bits_of (Ipv6FragmentHeader_to_bytes (frag_set f h v))) (bits_of (Ipv6FragmentHeader_to_bytes h)).
Proof.
  apply (set_no_bleed frag_ok _ frag_spec_layout frag_set _ frag_idx frag_enc_layout frag_set_ok).
  intros f' [nh fo mf id] v' _ _. destruct f'; (split; [reflexivity|eexists; reflexivity]).
Qed.

Lemma frag_roundtrip h : frag_ok h ->
  Ipv6FragmentHeader_from_slice (Ipv6FragmentHeader_to_bytes h) = Val h /\
  Ipv6FragmentHeader_read (Ipv6FragmentHeader_to_bytes h) = Val h.
Proof.
  destruct h as [nh fo mf id]. unfold frag_ok, IpFragOffset_MAX_U16. fr_proj. intros (Hn & Hf & Hi).
  destruct (fr_octets23 fo mf Hf) as (_ & C1 & C2).
  unfold Ipv6FragmentHeader_from_slice, Ipv6FragmentHeader_read, Ipv6FragmentHeaderSlice_from_slice,
    Ipv6FragmentHeader_to_bytes. fr_proj. fold (fr_fo16 fo mf).
  match goal with |- bind (if len ?s <? 8 then _ else _) _ = _ /\ _ => set (S := s) end.
  change (len S <? 8) with false. cbv iota. change (take 8 S) with S. cbn [bind].
  assert (E : FRS_to_header S = Val (mkFrag nh fo mf id)).
  { unfold FRS_to_header, FRS_next_header, FRS_fragment_offset, FRS_more_fragments, FRS_identification, S.
    getu_norm. rewrite C1, C2, be32_bytes by assumption.
    unfold IpFragOffset_new_unchecked, IpFragOffset_MAX_U16. rewrite unchecked_ok by assumption. reflexivity. }
  split; exact E.
Qed.
