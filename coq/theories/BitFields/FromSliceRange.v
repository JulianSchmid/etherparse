(* BitFields/FromSliceRange.v -- property C15, clause "decoding any bytes only ever
   produces in-range values" for the struct decoders
   (`X::from_slice` = `XSlice::from_slice(s)?.to_header()`), on arbitrary bytes:
     SingleVlanHeader::from_slice, SingleVlanSlice (from_slice + to_header),
     Ipv4Header::from_slice, Ipv6Header::from_slice,
     Ipv6FragmentHeader::from_slice / ::read, MacsecHeader::from_slice,
     IgmpHeader::from_slice (IGMPv3 query arm).
   The accessor lemmas of Proofs2.v are composed along `to_header` (a sequence of those
   accessors on the validated window `take n s`). *)
From EP Require Import Base.Bytes BitFields.Spec BitFields.Model BitFields.Fields BitFields.BitLemmas
  BitFields.Proofs BitFields.Proofs2 BitFields.Proofs3.
From Coq Require Import ZArith Lia ZifyN.
Local Open Scope N_scope.

Definition frag_in_range (h : Ipv6FragmentHeader) : Prop :=
  fr_fragment_offset h <= IpFragOffset_MAX_U16.
Definition macsec_in_range (h : MacsecHeader) : Prop :=
  ms_an h <= MacsecAn_MAX_U8 /\ ms_short_len h <= MacsecShortLen_MAX_U8.
(* the IGMPv3 query stores octet 8 raw; the QRV getter on the stored octet is in range *)
Definition query_in_range (r : MembershipQueryWithSourcesHeader * N) : Prop :=
  q_raw_byte_8 (fst r) < 256 /\
  no_ub (Query_qrv (q_raw_byte_8 (fst r))) (fun v => v <= Qrv_MAX_U8).

(* one accessor of a to_header sequence: bounded (lemma L) or plain (hint db [plain]) *)
Ltac bounded L Hs := eapply no_ub_bind; [exact (L _ Hs) | intros ? ?].
Ltac plain := eapply (no_ub_bind _ _ (fun _ => True)); [auto 20 with plain | intros ? _].

Lemma VHS_to_header_in_range s : bytes_ok s -> no_ub (VHS_to_header s) vlan_in_range.
Proof.
  intros Hs. unfold VHS_to_header.
  bounded VHS_pcp_in_range Hs.
  unfold VHS_drop_eligible_indicator. plain.
  bounded VHS_vid_in_range Hs.
  unfold VHS_ether_type. plain.
  apply no_ub_val. split; assumption.
Qed.

Lemma SingleVlanHeader_from_slice_in_range s : bytes_ok s ->
  no_ub (SingleVlanHeader_from_slice s) vlan_in_range.
Proof.
  intros Hs. unfold SingleVlanHeader_from_slice, SingleVlanHeaderSlice_from_slice.
  destruct (len s <? 4); cbn [bind]; [apply no_ub_fail; discriminate|].
  apply VHS_to_header_in_range. apply bytes_ok_take. exact Hs.
Qed.

Lemma VS_to_header_in_range s : bytes_ok s -> no_ub (VS_to_header s) vlan_in_range.
Proof. exact (VHS_to_header_in_range s). Qed.

Lemma SingleVlanSlice_decode_in_range s : bytes_ok s ->
  no_ub (SingleVlanSlice_decode s) vlan_in_range.
Proof.
  intros Hs. unfold SingleVlanSlice_decode, SingleVlanSlice_from_slice.
  destruct (len s <? 4); cbn [bind]; [apply no_ub_fail; discriminate|].
  apply VS_to_header_in_range. exact Hs.
Qed.

Lemma vlan_struct_decoders_in_range s : bytes_ok s ->
  no_ub (SingleVlanHeader_from_slice s) vlan_in_range /\ no_ub (SingleVlanSlice_decode s) vlan_in_range.
Proof.
  intros Hs. split; [exact (SingleVlanHeader_from_slice_in_range s Hs)
                    |exact (SingleVlanSlice_decode_in_range s Hs)].
Qed.

Lemma V4S_to_header_in_range s : bytes_ok s -> no_ub (V4S_to_header s) v4_in_range.
Proof.
  intros Hs. unfold V4S_to_header.
  bounded V4S_dcp_in_range Hs.
  bounded V4S_ecn_in_range Hs.
  unfold V4S_total_len. plain.
  unfold V4S_identification. plain.
  unfold V4S_dont_fragment. plain.
  unfold V4S_more_fragments. plain.
  bounded V4S_fo_in_range Hs.
  unfold V4S_ttl. plain.
  unfold V4S_protocol. plain.
  unfold V4S_header_checksum. plain.
  unfold V4S_source. plain.
  unfold V4S_destination. plain.
  unfold V4S_options. plain.
  apply no_ub_val. repeat split; assumption.
Qed.

Lemma Ipv4Header_from_slice_in_range s : bytes_ok s ->
  no_ub (Ipv4Header_from_slice s) v4_in_range.
Proof.
  intros Hs. unfold Ipv4Header_from_slice, Ipv4HeaderSlice_from_slice.
  eapply no_ub_bind; [|intros hs Hhs; apply V4S_to_header_in_range; exact Hhs].
  cbv zeta. repeat step Hs. apply no_ub_val. apply bytes_ok_take. exact Hs.
Qed.

Lemma V6S_tc_lt s : bytes_ok s -> no_ub (V6S_traffic_class s) (fun tc => tc < 256).
Proof.
  intros Hs. unfold V6S_traffic_class.
  step Hs. step Hs. apply no_ub_val. apply tc_of_octets_lt. assumption.
Qed.

Lemma V6S_to_header_in_range s : bytes_ok s -> no_ub (V6S_to_header s) v6_in_range.
Proof.
  intros Hs. unfold V6S_to_header.
  eapply no_ub_bind; [exact (V6S_tc_lt s Hs)|intros tc Htc].
  bounded V6S_flow_in_range Hs.
  unfold V6S_payload_length. plain.
  unfold V6S_next_header. plain.
  unfold V6S_hop_limit. plain.
  unfold V6S_source. plain.
  unfold V6S_destination. plain.
  apply no_ub_val. split; assumption.
Qed.

Lemma Ipv6Header_from_slice_in_range s : bytes_ok s ->
  no_ub (Ipv6Header_from_slice s) v6_in_range.
Proof.
  intros Hs. unfold Ipv6Header_from_slice, Ipv6HeaderSlice_from_slice.
  eapply no_ub_bind; [|intros hs Hhs; apply V6S_to_header_in_range; exact Hhs].
  cbv zeta. repeat step Hs. apply no_ub_val. apply bytes_ok_take. exact Hs.
Qed.

Lemma FRS_to_header_in_range s : bytes_ok s -> no_ub (FRS_to_header s) frag_in_range.
Proof.
  intros Hs. unfold FRS_to_header.
  unfold FRS_next_header. plain.
  bounded FRS_fo_in_range Hs.
  unfold FRS_more_fragments. plain.
  unfold FRS_identification. plain.
  apply no_ub_val. assumption.
Qed.

Lemma Ipv6FragmentHeader_from_slice_in_range s : bytes_ok s ->
  no_ub (Ipv6FragmentHeader_from_slice s) frag_in_range.
Proof.
  intros Hs. unfold Ipv6FragmentHeader_from_slice, Ipv6FragmentHeaderSlice_from_slice.
  destruct (len s <? 8); cbn [bind]; [apply no_ub_fail; discriminate|].
  apply FRS_to_header_in_range. apply bytes_ok_take. exact Hs.
Qed.

Lemma Ipv6FragmentHeader_read_in_range reader : bytes_ok reader ->
  no_ub (Ipv6FragmentHeader_read reader) frag_in_range.
Proof.
  intros Hs. unfold Ipv6FragmentHeader_read.
  destruct (len reader <? 8); [apply no_ub_fail; discriminate|].
  apply FRS_to_header_in_range. apply bytes_ok_take. exact Hs.
Qed.

Lemma MS_ptype_plain s : no_ub (MS_ptype s) (fun _ => True).
Proof. unfold MS_ptype, MS_encrypted, MS_userdata_changed. auto 30 with plain. Qed.

Lemma MS_to_header_in_range s : bytes_ok s -> no_ub (MS_to_header s) macsec_in_range.
Proof.
  intros Hs. unfold MS_to_header.
  eapply no_ub_bind; [exact (MS_ptype_plain s)|intros pt _].
  unfold MS_endstation_id. plain.
  unfold MS_tci_scb. plain.
  bounded MS_an_in_range Hs.
  bounded MS_sl_in_range Hs.
  unfold MS_packet_nr. plain.
  unfold MS_sci, MS_sci_present. plain.
  apply no_ub_val. split; assumption.
Qed.

Lemma MacsecHeader_from_slice_in_range s : bytes_ok s ->
  no_ub (MacsecHeader_from_slice s) macsec_in_range.
Proof.
  intros Hs. unfold MacsecHeader_from_slice, MacsecHeaderSlice_from_slice.
  eapply no_ub_bind; [|intros hs Hhs; apply MS_to_header_in_range; exact Hhs].
  cbv zeta. repeat step Hs. apply no_ub_val. apply bytes_ok_take. exact Hs.
Qed.

Lemma IgmpQuery_from_slice_in_range s : bytes_ok s ->
  no_ub (IgmpQuery_from_slice s) query_in_range.
Proof.
  intros Hs. unfold IgmpQuery_from_slice.
  destruct (len s <? 8); [apply no_ub_fail; discriminate|].
  repeat step Hs.
  destruct (12 <=? len s); [|apply no_ub_fail; discriminate].
  repeat step Hs.
  apply no_ub_val. unfold query_in_range. cbn [fst q_raw_byte_8].
  split; [assumption|]. apply Query_qrv_in_range. assumption.
Qed.
