(* CtlMsg/RejectIff.v -- property C17: the sentence "reject exactly the inputs that are
   too short or whose length units are zero or inconsistent" as iff statements for
   Icmpv4Slice, Icmpv6Slice, IgmpHeader::from_slice, ReportGroupRecordV3Header::from_slice,
   ArpPacketSlice and ArpPacket::from_slice(..)?.try_eth_ipv4().  Each lemma has three
   parts: a LenError is returned exactly for the named inputs (with the exact record), a
   value exactly for all the others, and the out-of-bounds marker `UB` never.  All follow
   from the equalities of CtlMsg/Proofs.v with the RFC functions of CtlMsg/Spec.v. *)
From EP Require Import Base.Bytes CtlMsg.Spec CtlMsg.Model CtlMsg.Proofs.
Local Open Scope N_scope.

(* shape of every statement below, for a result r and the rejection condition R *)
Definition rejects_exactly {A : Type} (r : res A) (R : Prop) : Prop :=
  ((exists e, r = ErrLen e) <-> R) /\ ((exists v, r = Ok v) <-> ~ R) /\ (forall n, r <> UB n).

Lemma rejects_err {A} (e : len_error) (R : Prop) : R -> rejects_exactly (@ErrLen A e) R.
Proof.
  intros HR. split; [|split].
  - split; [intros _; exact HR | intros _; eexists; reflexivity].
  - split; [intros [v Hv]; discriminate | intros Hn; contradiction].
  - intros n; discriminate.
Qed.
Lemma rejects_ok {A} (v : A) (R : Prop) : ~ R -> rejects_exactly (Ok v) R.
Proof.
  intros HR. split; [|split].
  - split; [intros [e He]; discriminate | intros Hr; contradiction].
  - split; [intros _; exact HR | intros _; eexists; reflexivity].
  - intros n; discriminate.
Qed.

(* ---------------- ICMPv4 ---------------- *)
Definition icmp4_rejected (bs : bytes) : Prop :=
  len bs < 8 \/ ((byte_at bs 0 = 13 \/ byte_at bs 0 = 14) /\ byte_at bs 1 = 0 /\ len bs <> 20).

Lemma icmp4_reject_iff bs : rejects_exactly (Icmpv4Slice.view bs) (icmp4_rejected bs).
Proof.
  rewrite icmp4_eq. unfold icmp4, icmp4_rejected.
  destruct (len bs <? 8) eqn:E8.
  { apply N.ltb_lt in E8. apply rejects_err. left; exact E8. }
  apply N.ltb_ge in E8.
  set (t := byte_at bs 0). set (c := byte_at bs 1).
  unfold icmp4_fixed_table. cbn [lookup].
  destruct (13 =? t) eqn:E13; [apply N.eqb_eq in E13|apply N.eqb_neq in E13];
  (destruct (0 =? c) eqn:E0; [apply N.eqb_eq in E0|apply N.eqb_neq in E0]); cbn [andb];
  try (destruct (14 =? t) eqn:E14; [apply N.eqb_eq in E14|apply N.eqb_neq in E14]; cbn [andb]);
  try (destruct (len bs =? 20) eqn:E20; [apply N.eqb_eq in E20|apply N.eqb_neq in E20]);
  try (apply rejects_err; right; repeat split; auto; lia);
  try (destruct (lookup t c icmp4_table));
  apply rejects_ok; intros [Hs|[[H13|H14] [Hc Hl]]]; try lia; congruence.
Qed.

(* the error record of each of the two rejection classes *)
Lemma icmp4_reject_record bs e : Icmpv4Slice.view bs = ErrLen e ->
  (len bs < 8 /\ e = mkLenError 8 (len bs) LsSlice LIcmpv4 0) \/
  (8 <= len bs /\ byte_at bs 0 = 13 /\ byte_at bs 1 = 0 /\ len bs <> 20 /\
   e = mkLenError 20 (len bs) LsSlice LIcmpv4Timestamp 0) \/
  (8 <= len bs /\ byte_at bs 0 = 14 /\ byte_at bs 1 = 0 /\ len bs <> 20 /\
   e = mkLenError 20 (len bs) LsSlice LIcmpv4TimestampReply 0).
Proof.
  rewrite icmp4_eq. unfold icmp4.
  destruct (len bs <? 8) eqn:E8.
  { apply N.ltb_lt in E8. intros H; injection H as <-. left; split; [exact E8|reflexivity]. }
  apply N.ltb_ge in E8.
  set (t := byte_at bs 0). set (c := byte_at bs 1).
  unfold icmp4_fixed_table. cbn [lookup].
  destruct (13 =? t) eqn:E13; [apply N.eqb_eq in E13|apply N.eqb_neq in E13];
  (destruct (0 =? c) eqn:E0; [apply N.eqb_eq in E0|apply N.eqb_neq in E0]); cbn [andb];
  try (destruct (14 =? t) eqn:E14; [apply N.eqb_eq in E14|apply N.eqb_neq in E14]; cbn [andb]);
  try (destruct (len bs =? 20) eqn:E20; [apply N.eqb_eq in E20|apply N.eqb_neq in E20]);
  try discriminate; try (destruct (lookup t c icmp4_table); discriminate);
  intros H; injection H as <-;
  first [ solve [right; left; repeat split; auto] | solve [right; right; repeat split; auto] ].
Qed.

(* ---------------- ICMPv6 ---------------- *)
Definition icmp6_rejected (bs : bytes) : Prop := len bs < 8 \/ MAX_ICMPV6_BYTE_LEN < len bs.

Lemma icmp6_reject_iff bs : rejects_exactly (Icmpv6Slice.view bs) (icmp6_rejected bs).
Proof.
  rewrite icmp6_eq. unfold icmp6, icmp6_rejected.
  destruct (len bs <? 8) eqn:E8.
  { apply N.ltb_lt in E8. apply rejects_err. left; exact E8. }
  apply N.ltb_ge in E8.
  destruct (MAX_ICMPV6_BYTE_LEN <? len bs) eqn:EM.
  { apply N.ltb_lt in EM. apply rejects_err. right; exact EM. }
  apply N.ltb_ge in EM.
  cbv zeta. destruct (lookup (byte_at bs 0) (byte_at bs 1) icmp6_table);
  apply rejects_ok; intros [H|H]; lia.
Qed.

Lemma icmp6_reject_record bs e : Icmpv6Slice.view bs = ErrLen e ->
  (len bs < 8 /\ e = mkLenError 8 (len bs) LsSlice LIcmpv6 0) \/
  (MAX_ICMPV6_BYTE_LEN < len bs /\ e = mkLenError MAX_ICMPV6_BYTE_LEN (len bs) LsSlice LIcmpv6 0).
Proof.
  rewrite icmp6_eq. unfold icmp6.
  destruct (len bs <? 8) eqn:E8.
  { apply N.ltb_lt in E8. intros H; injection H as <-. left; split; [exact E8|reflexivity]. }
  destruct (MAX_ICMPV6_BYTE_LEN <? len bs) eqn:EM.
  { apply N.ltb_lt in EM. intros H; injection H as <-. right; split; [exact EM|reflexivity]. }
  cbv zeta. destruct (lookup (byte_at bs 0) (byte_at bs 1) icmp6_table); discriminate.
Qed.

(* ---------------- IGMP ---------------- *)
Definition igmp_rejected (bs : bytes) : Prop :=
  len bs < 8 \/ (byte_at bs 0 = 17 /\ 8 < len bs /\ len bs < 12).

Lemma igmp_reject_iff bs : rejects_exactly (Igmp.view bs) (igmp_rejected bs).
Proof.
  rewrite igmp_eq. unfold igmp, igmp_rejected.
  destruct (len bs <? 8) eqn:E8.
  { apply N.ltb_lt in E8. apply rejects_err. left; exact E8. }
  apply N.ltb_ge in E8. cbv zeta.
  destruct (byte_at bs 0 =? 17) eqn:E17; [apply N.eqb_eq in E17|apply N.eqb_neq in E17].
  - destruct (len bs =? 8) eqn:E; [apply N.eqb_eq in E|apply N.eqb_neq in E].
    { apply rejects_ok. intros [H|[_ [H _]]]; lia. }
    destruct (12 <=? len bs) eqn:E12; [apply N.leb_le in E12|apply N.leb_gt in E12].
    { apply rejects_ok. intros [H|[_ [_ H]]]; lia. }
    apply rejects_err. right. repeat split; [exact E17|lia|exact E12].
  - destruct (lookup1 (byte_at bs 0) igmp_table);
    apply rejects_ok; intros [H|[H _]]; [lia|contradiction|lia|contradiction].
Qed.

Lemma igmp_reject_record bs e : Igmp.view bs = ErrLen e ->
  (len bs < 8 /\ e = mkLenError 8 (len bs) LsSlice LIgmp 0) \/
  (byte_at bs 0 = 17 /\ 8 < len bs /\ len bs < 12 /\ e = mkLenError 12 (len bs) LsSlice LIgmp 0).
Proof.
  rewrite igmp_eq. unfold igmp.
  destruct (len bs <? 8) eqn:E8.
  { apply N.ltb_lt in E8. intros H; injection H as <-. left; split; [exact E8|reflexivity]. }
  apply N.ltb_ge in E8. cbv zeta.
  destruct (byte_at bs 0 =? 17) eqn:E17; [apply N.eqb_eq in E17|apply N.eqb_neq in E17].
  - destruct (len bs =? 8) eqn:E; [discriminate|apply N.eqb_neq in E].
    destruct (12 <=? len bs) eqn:E12; [discriminate|apply N.leb_gt in E12].
    intros H; injection H as <-. right. repeat split; [exact E17|lia|exact E12].
  - destruct (lookup1 (byte_at bs 0) igmp_table); discriminate.
Qed.

(* the 8-octet group-record header: rejected exactly when fewer than 8 octets are left *)
Lemma group_record_reject_iff bs :
  rejects_exactly (Igmp.group_record_from_slice bs) (len bs < 8).
Proof.
  rewrite group_record_eq. unfold group_record.
  destruct (len bs <? 8) eqn:E8.
  - apply N.ltb_lt in E8. apply rejects_err. exact E8.
  - apply N.ltb_ge in E8. apply rejects_ok. lia.
Qed.

(* ---------------- ARP ---------------- *)
Definition arp_rejected (bs : bytes) : Prop := len bs < 8 \/ len bs < arp_total bs.

Lemma arp_view_reject_iff bs : rejects_exactly (Arp.slice_view bs) (arp_rejected bs).
Proof.
  rewrite arp_view_eq. unfold arp_view, arp_rejected, arp_total.
  destruct (len bs <? 8) eqn:E8.
  { apply N.ltb_lt in E8. apply rejects_err. left; exact E8. }
  apply N.ltb_ge in E8. cbv zeta.
  destruct (len bs <? 8 + 2 * byte_at bs 4 + 2 * byte_at bs 5) eqn:ET.
  { apply N.ltb_lt in ET. apply rejects_err. right; exact ET. }
  apply N.ltb_ge in ET. apply rejects_ok. intros [H|H]; lia.
Qed.

Lemma arp_view_reject_record bs e : Arp.slice_view bs = ErrLen e ->
  (len bs < 8 /\ e = mkLenError 8 (len bs) LsSlice LArp 0) \/
  (8 <= len bs /\ len bs < arp_total bs /\ e = mkLenError (arp_total bs) (len bs) LsArpAddrLengths LArp 0).
Proof.
  rewrite arp_view_eq. unfold arp_view, arp_total.
  destruct (len bs <? 8) eqn:E8.
  { apply N.ltb_lt in E8. intros H; injection H as <-. left; split; [exact E8|reflexivity]. }
  apply N.ltb_ge in E8. cbv zeta.
  destruct (len bs <? 8 + 2 * byte_at bs 4 + 2 * byte_at bs 5) eqn:ET; [|discriminate].
  apply N.ltb_lt in ET. intros H; injection H as <-. right. repeat split; assumption.
Qed.

(* ArpPacket::from_slice(..)?.try_eth_ipv4(): the three outcomes, the checks in the order
   hardware type, protocol type, hardware address size, protocol address size *)
Lemma arp_eth_ipv4_outcomes bs : bytes_ok bs ->
  let r := Arp.eth_ipv4_view bs in
  let hs := byte_at bs 4 in let ps := byte_at bs 5 in
  ((exists e, r = ArpLenErr e) <-> arp_rejected bs) /\
  (forall e, r = ArpFromErr e <->
     ~ arp_rejected bs /\
     (   (u16_at bs 0 <> 1 /\ e = NonMatchingHwType (u16_at bs 0))
      \/ (u16_at bs 0 = 1 /\ u16_at bs 2 <> 2048 /\ e = NonMatchingProtocolType (u16_at bs 2))
      \/ (u16_at bs 0 = 1 /\ u16_at bs 2 = 2048 /\ hs <> 6 /\ e = NonMatchingHwAddrSize hs)
      \/ (u16_at bs 0 = 1 /\ u16_at bs 2 = 2048 /\ hs = 6 /\ ps <> 4 /\ e = NonMatchingProtoAddrSize ps))) /\
  ((exists p, r = ArpOk p) <->
     ~ arp_rejected bs /\ u16_at bs 0 = 1 /\ u16_at bs 2 = 2048 /\ hs = 6 /\ ps = 4) /\
  (forall n, r <> ArpUB n).
Proof.
  intros Hok. cbv zeta. rewrite (arp_eth_ipv4_eq bs Hok).
  unfold arp_eth_ipv4, arp_rejected, arp_total, ARP_HW_ETHERNET, ETHER_TYPE_IPV4.
  destruct (len bs <? 8) eqn:E8; [apply N.ltb_lt in E8|apply N.ltb_ge in E8]; cbv zeta;
  [|destruct (len bs <? 8 + 2 * byte_at bs 4 + 2 * byte_at bs 5) eqn:ET;
    [apply N.ltb_lt in ET|apply N.ltb_ge in ET];
    [|destruct (u16_at bs 0 =? 1) eqn:E1; [apply N.eqb_eq in E1|apply N.eqb_neq in E1]; cbn [negb];
      [destruct (u16_at bs 2 =? 2048) eqn:E2; [apply N.eqb_eq in E2|apply N.eqb_neq in E2]; cbn [negb];
       [destruct (byte_at bs 4 =? 6) eqn:E3; [apply N.eqb_eq in E3|apply N.eqb_neq in E3]; cbn [negb];
        [destruct (byte_at bs 5 =? 4) eqn:E4; [apply N.eqb_eq in E4|apply N.eqb_neq in E4]; cbn [negb]|]|]|]]];
  (split; [|split; [intros e|split; [|intros n; discriminate]]]);
  (split; intros H);
  repeat match goal with
  | H : exists _, _ |- _ => destruct H as [? H]
  | H : ArpFromErr _ = ArpFromErr _ |- _ => injection H as H; subst
  end;
  try discriminate;
  try (eexists; reflexivity);
  try solve [intuition (try congruence; try lia)].
Qed.
