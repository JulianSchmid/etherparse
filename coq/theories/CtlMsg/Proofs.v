(* CtlMsg/Proofs.v -- lemmas for property C17: the model of the typed
   control-message views (CtlMsg/Model.v) against the RFC tables
   (CtlMsg/Spec.v).  The dispatch lemmas are proved by case analysis of the
   type and code numbers down to as many binary digits as the largest literal
   of the tables has: every literal becomes a closed number and every other
   number keeps a symbolic tail that no literal can match, so the lemmas hold
   for all N, not only for octets.  The message itself stays a folded local
   definition during the case analysis, which keeps the goals small. *)
From EP Require Import Base.Bytes Base.Lists CtlMsg.Spec CtlMsg.Model.
Local Open Scope N_scope.

(* case analysis of a number down to k binary digits: every literal below 2^k
   becomes a closed term, everything else keeps a symbolic tail that no
   literal pattern can match *)
Ltac dpos p k :=
  match k with
  | O => idtac
  | S ?k' => destruct p as [p|p|]; [dpos p k' | dpos p k' | ]
  end.
Ltac dN t k := destruct t as [|t]; [| dpos t k].

Ltac len_absurd H := exfalso; revert H; clear; unfold len; cbn [length]; lia.

Lemma len_ge_cons8 (bs : bytes) : (len bs <? 8) = false ->
  exists a b c d e f g h r, bs = a::b::c::d::e::f::g::h::r.
Proof.
  intros H. apply N.ltb_ge in H.
  do 8 (destruct bs as [|? bs]; [len_absurd H|]).
  repeat eexists.
Qed.

Lemma nth_skipn_add {A} (d : A) n : forall (l : list A) i, nth (n + i) l d = nth i (skipn n l) d.
Proof.
  induction n as [|n IH]; intros l i; [reflexivity|].
  destruct l as [|x l]; [destruct i; reflexivity|]. cbn [plus nth skipn]. apply IH.
Qed.

Lemma byte_at_drop s off i : byte_at (drop off s) i = byte_at s (off + i).
Proof.
  unfold byte_at, drop. rewrite N2Nat.inj_add. symmetry. apply nth_skipn_add.
Qed.

Lemma byte_at_take s n i : i < n -> byte_at (take n s) i = byte_at s i.
Proof.
  intros H. unfold byte_at, take.
  rewrite <- (firstn_skipn (N.to_nat n) s) at 2.
  destruct (Nat.lt_ge_cases (N.to_nat i) (length (firstn (N.to_nat n) s))) as [L|L].
  - rewrite app_nth1 by exact L. reflexivity.
  - rewrite (nth_overflow (firstn _ _)) by exact L.
    rewrite firstn_length in L.
    assert (length s <= N.to_nat i)%nat by lia.
    rewrite nth_overflow; [reflexivity|]. rewrite app_length, firstn_length, skipn_length. lia.
Qed.

Lemma rd_byte_at s i : i < len s -> rd s i = Some (byte_at s i).
Proof.
  intros H. unfold rd, byte_at. apply nth_error_nth'. unfold len in H. lia.
Qed.

Lemma get_unchecked_spec s i : i < len s -> get_unchecked s i = Some (byte_at s i).
Proof. apply rd_byte_at. Qed.

Lemma get_unchecked_be_u16_spec s i : i + 2 <= len s -> get_unchecked_be_u16 s i = Some (u16_at s i).
Proof.
  intros H. unfold get_unchecked_be_u16, u16_at. rewrite !rd_byte_at by lia. reflexivity.
Qed.

Lemma get_unchecked_be_u32_spec s i : i + 4 <= len s -> get_unchecked_be_u32 s i = Some (u32_at s i).
Proof.
  intros H. unfold get_unchecked_be_u32, u32_at. rewrite !rd_byte_at by lia. reflexivity.
Qed.

Lemma get4_unchecked_spec s i : i + 4 <= len s ->
  get4_unchecked s i = Some (byte_at s i, byte_at s (i + 1), byte_at s (i + 2), byte_at s (i + 3)).
Proof.
  intros H. unfold get4_unchecked. rewrite !rd_byte_at by lia. reflexivity.
Qed.

Lemma from_raw_parts_spec s off n : off + n <= len s -> from_raw_parts s off n = Some (bytes_at s off n).
Proof.
  intros H. unfold from_raw_parts. apply N.leb_le in H. rewrite H. reflexivity.
Qed.

Lemma from_raw_parts_rest s h : h <= len s -> from_raw_parts s h (len s - h) = Some (drop h s).
Proof.
  intros H. rewrite from_raw_parts_spec by lia. unfold bytes_at.
  rewrite take_all; [reflexivity|]. rewrite len_drop. lia.
Qed.

Lemma slice_from_spec s off : off <= len s -> slice_from s off = Some (drop off s).
Proof. intros H. unfold slice_from. apply N.leb_le in H. rewrite H. reflexivity. Qed.

Lemma first_chunk_spec s n : n <= len s -> first_chunk s n = Some (take n s).
Proof. intros H. unfold first_chunk. apply N.leb_le in H. rewrite H. reflexivity. Qed.

Lemma take4_bytes r : 4 <= len r ->
  take 4 r = [byte_at r 0; byte_at r 1; byte_at r 2; byte_at r 3].
Proof.
  intros H.
  do 4 (destruct r as [|? r]; [len_absurd H|]).
  reflexivity.
Qed.

Lemma be_u32_at_spec s off : off + 4 <= len s ->
  Icmpv6PayloadSlice.be_u32_at s off = Some (u32_at s off).
Proof.
  intros H. unfold Icmpv6PayloadSlice.be_u32_at.
  rewrite slice_from_spec by lia.
  rewrite first_chunk_spec by (rewrite len_drop; lia).
  rewrite take4_bytes by (rewrite len_drop; lia).
  unfold u32_at. rewrite !byte_at_drop. rewrite N.add_0_r. reflexivity.
Qed.

Lemma addr_at_spec s off : off + 16 <= len s ->
  Icmpv6PayloadSlice.addr_at s off = Some (bytes_at s off 16).
Proof.
  intros H. unfold Icmpv6PayloadSlice.addr_at.
  rewrite slice_from_spec by lia.
  rewrite first_chunk_spec by (rewrite len_drop; lia). reflexivity.
Qed.

Lemma ltb_0_r x : (x <? 0) = false.
Proof. apply N.ltb_ge. lia. Qed.

Lemma land_pow2 b k : N.land b (2 ^ k) = if N.testbit b k then 2 ^ k else 0.
Proof.
  apply N.bits_inj. intros m. rewrite N.land_spec, N.pow2_bits_eqb.
  destruct (N.eqb_spec k m) as [->|Hne].
  - destruct (N.testbit b m) eqn:E.
    + rewrite N.pow2_bits_true. reflexivity.
    + rewrite N.bits_0. reflexivity.
  - rewrite andb_false_r. destruct (N.testbit b k).
    + rewrite N.pow2_bits_false by congruence. reflexivity.
    + rewrite N.bits_0. reflexivity.
Qed.

Lemma pow2_ne0 k : 2 ^ k <> 0.
Proof. apply N.pow_nonzero. discriminate. Qed.

Lemma mask_ne0_bit b k : mask_ne0 b (2 ^ k) = N.testbit b k.
Proof.
  unfold mask_ne0. rewrite land_pow2. destruct (N.testbit b k).
  - destruct (N.eqb_spec (2 ^ k) 0) as [E|E]; [exfalso; revert E; apply pow2_ne0 | reflexivity].
  - reflexivity.
Qed.
Lemma mask_eq_bit b k : mask_eq b (2 ^ k) = N.testbit b k.
Proof.
  unfold mask_eq. rewrite land_pow2. destruct (N.testbit b k).
  - apply N.eqb_refl.
  - destruct (N.eqb_spec 0 (2 ^ k)) as [E|E]; [exfalso; symmetry in E; revert E; apply pow2_ne0 | reflexivity].
Qed.
Lemma mask_ne0_128 b : mask_ne0 b 128 = bit_msb b 0. Proof. exact (mask_ne0_bit b 7). Qed.
Lemma mask_ne0_64 b : mask_ne0 b 64 = bit_msb b 1. Proof. exact (mask_ne0_bit b 6). Qed.
Lemma mask_eq_128 b : mask_eq b 128 = bit_msb b 0. Proof. exact (mask_eq_bit b 7). Qed.
Lemma mask_eq_64 b : mask_eq b 64 = bit_msb b 1. Proof. exact (mask_eq_bit b 6). Qed.
Lemma mask_eq_32 b : mask_eq b 32 = bit_msb b 2. Proof. exact (mask_eq_bit b 5). Qed.
(* ---------------- ICMPv4 ---------------- *)
Lemma icmp4_cases t c k0 k1 b4 b5 b6 b7 rest :
  let s := t::c::k0::k1::b4::b5::b6::b7::rest in
  match lookup t c icmp4_fixed_table with
  | Some (n, lay, mk) =>
      n = 20 /\ Icmpv4Slice.header_len s = Some 20 /\
      Icmpv4Slice.from_slice s =
        (if len s <? 8 then ErrLen (mkLenError 8 (len s) LsSlice LIcmpv4 0)
         else if len s =? 20 then Ok s else ErrLen (mkLenError 20 (len s) LsSlice lay 0)) /\
      exists u, Icmpv4Slice.icmp_type s =
        match Icmpv4Slice.timestamp_message s with Some m => Ok (mk m) | None => UB u end
  | None =>
      Icmpv4Slice.from_slice s =
        (if len s <? 8 then ErrLen (mkLenError 8 (len s) LsSlice LIcmpv4 0) else Ok s) /\
      Icmpv4Slice.header_len s = Some 8 /\
      Icmpv4Slice.icmp_type s =
        Ok (match lookup t c icmp4_table with Some f => f s | None => V4Unknown t c b4 b5 b6 b7 end)
  end.
Proof.
  intros s.
  dN t 4%nat; try (repeat split; reflexivity);
    dN c 4%nat; try (repeat split; reflexivity).
  (* left: 13/0 and 14/0, where the model tests [20 =? len s] and the table side [len s =? 20] *)
  all: repeat split; try reflexivity; try (eexists; reflexivity).
  all: unfold Icmpv4Slice.from_slice, Icmpv4Slice.TIMESTAMP_LEN; rewrite (N.eqb_sym 20).
  all: destruct (len s <? _), (len s =? 20); reflexivity.
Qed.

Lemma timestamp_message_20 s : len s = 20 ->
  Icmpv4Slice.timestamp_message s = Some (timestamp_at s).
Proof.
  intros H.
  do 20 (destruct s as [|? s]; [len_absurd H|]).
  destruct s; [reflexivity|len_absurd H].
Qed.

Lemma icmp4_eq bs : Icmpv4Slice.view bs = icmp4 bs.
Proof.
  unfold Icmpv4Slice.view, icmp4.
  destruct (len bs <? 8) eqn:E8.
  { unfold Icmpv4Slice.from_slice, Icmpv4Slice.MIN_LEN. rewrite E8. reflexivity. }
  destruct (len_ge_cons8 bs E8) as (t & c & k0 & k1 & b4 & b5 & b6 & b7 & rest & ->).
  pose proof (icmp4_cases t c k0 k1 b4 b5 b6 b7 rest) as C. cbv zeta in C.
  change (byte_at (t :: c :: k0 :: k1 :: b4 :: b5 :: b6 :: b7 :: rest) 0) with t.
  change (byte_at (t :: c :: k0 :: k1 :: b4 :: b5 :: b6 :: b7 :: rest) 1) with c.
  change (byte_at (t :: c :: k0 :: k1 :: b4 :: b5 :: b6 :: b7 :: rest) 4) with b4.
  change (byte_at (t :: c :: k0 :: k1 :: b4 :: b5 :: b6 :: b7 :: rest) 5) with b5.
  change (byte_at (t :: c :: k0 :: k1 :: b4 :: b5 :: b6 :: b7 :: rest) 6) with b6.
  change (byte_at (t :: c :: k0 :: k1 :: b4 :: b5 :: b6 :: b7 :: rest) 7) with b7.
  set (s := t :: c :: k0 :: k1 :: b4 :: b5 :: b6 :: b7 :: rest) in *.
  apply N.ltb_ge in E8.
  destruct (lookup t c icmp4_fixed_table) as [[[n lay] mk]|].
  - destruct C as (-> & Hh & Hf & u & Ht). rewrite Hf.
    destruct (len s <? 8) eqn:E; [apply N.ltb_lt in E; lia|].
    destruct (len s =? 20) eqn:E20; [|reflexivity].
    apply N.eqb_eq in E20.
    rewrite Ht, (timestamp_message_20 s E20).
    unfold Icmpv4Slice.payload. rewrite Hh.
    replace (20 <=? len s) with true by (symmetry; apply N.leb_le; lia).
    rewrite from_raw_parts_rest by lia. reflexivity.
  - destruct C as (Hf & Hh & Ht). rewrite Hf.
    destruct (len s <? 8) eqn:E; [apply N.ltb_lt in E; lia|].
    rewrite Ht. unfold Icmpv4Slice.payload. rewrite Hh.
    replace (8 <=? len s) with true by (symmetry; apply N.leb_le; lia).
    rewrite from_raw_parts_rest by lia.
    destruct (lookup t c icmp4_table); reflexivity.
Qed.
(* ---------------- ICMPv6 ---------------- *)
Definition spec6_type (t c b4 b5 b6 b7 : N) (s : bytes) : Icmpv6Type :=
  match lookup t c icmp6_table with Some f => f s | None => V6Unknown t c b4 b5 b6 b7 end.

Lemma icmp6_cases t c k0 k1 b4 b5 b6 b7 rest :
  let s := t::c::k0::k1::b4::b5::b6::b7::rest in
  Icmpv6Slice.icmp_type s = Ok (spec6_type t c b4 b5 b6 b7 s) /\
  forall p, Icmpv6PayloadSlice.from_type_u8 t c p =
            Icmpv6PayloadSlice.from_slice (spec6_type t c b4 b5 b6 b7 s) p.
Proof.
  intros s. unfold spec6_type.
  dN t 8%nat; try (split; reflexivity);
    dN c 4%nat; try (split; reflexivity).
  - split; [|reflexivity].
    transitivity (@Ok Icmpv6Type (V6RouterAdvertisement b4 (bit_msb b5 0) (bit_msb b5 1) (be16 b6 b7))); [|reflexivity].
    rewrite <- mask_ne0_128, <- mask_ne0_64. reflexivity.
  - split; [|reflexivity].
    transitivity (@Ok Icmpv6Type (V6NeighborAdvertisement (bit_msb b4 0) (bit_msb b4 1) (bit_msb b4 2))); [|reflexivity].
    rewrite <- mask_eq_128, <- mask_eq_64, <- mask_eq_32. reflexivity.
Qed.

Lemma icmp6_payload_rest s : (len s <? 8) = false -> Icmpv6Slice.payload s = Some (drop 8 s).
Proof.
  intros H. apply N.ltb_ge in H. unfold Icmpv6Slice.payload.
  replace (8 <=? len s) with true by (symmetry; apply N.leb_le; lia).
  apply from_raw_parts_rest. lia.
Qed.

Lemma icmp6_eq bs : Icmpv6Slice.view bs = icmp6 bs.
Proof.
  unfold Icmpv6Slice.view, icmp6, Icmpv6Slice.from_slice, Icmpv6Slice.MIN_LEN,
    Icmpv6Slice.MAX_ICMPV6_BYTE_LEN, MAX_ICMPV6_BYTE_LEN.
  destruct (len bs <? 8) eqn:E8; [reflexivity|].
  destruct (4294967295 <? len bs) eqn:Emax; [reflexivity|].
  rewrite (icmp6_payload_rest bs E8).
  destruct (len_ge_cons8 bs E8) as (t & c & k0 & k1 & b4 & b5 & b6 & b7 & rest & ->).
  destruct (icmp6_cases t c k0 k1 b4 b5 b6 b7 rest) as [Ht _]. cbv zeta in Ht.
  rewrite Ht. unfold spec6_type.
  change (byte_at (t :: c :: k0 :: k1 :: b4 :: b5 :: b6 :: b7 :: rest) 0) with t.
  change (byte_at (t :: c :: k0 :: k1 :: b4 :: b5 :: b6 :: b7 :: rest) 1) with c.
  destruct (lookup t c icmp6_table); reflexivity.
Qed.

(* ---------------- ICMPv6 typed payloads ---------------- *)
Lemma payload_from_slice_spec ty p :
  Icmpv6PayloadSlice.from_slice ty p =
    if len p <? ndp_fixed_len (payload_kind_of ty)
    then ErrLen (mkLenError (ndp_fixed_len (payload_kind_of ty)) (len p) LsSlice LIcmpv6 0)
    else Ok (payload_kind_of ty, p).
Proof.
  destruct ty; cbn [payload_kind_of ndp_fixed_len Icmpv6PayloadSlice.from_slice];
    unfold Icmpv6PayloadSlice.plain_from_slice; rewrite ?ltb_0_r; reflexivity.
Qed.

Lemma payload_accessors_spec k p : ndp_fixed_len k <= len p ->
  Icmpv6PayloadSlice.accessors (k, p) = Ok (ndp_payload_view k p).
Proof.
  intros H. destruct k; cbn [ndp_fixed_len] in H;
    cbn [Icmpv6PayloadSlice.accessors ndp_payload_view]; try reflexivity.
  - unfold Icmpv6PayloadSlice.RA_FIXED_PART_LEN.
    rewrite !be_u32_at_spec, slice_from_spec by lia. reflexivity.
  - unfold Icmpv6PayloadSlice.NS_FIXED_PART_LEN.
    rewrite addr_at_spec, slice_from_spec by lia. reflexivity.
  - unfold Icmpv6PayloadSlice.NA_FIXED_PART_LEN.
    rewrite addr_at_spec, slice_from_spec by lia. reflexivity.
  - unfold Icmpv6PayloadSlice.REDIRECT_FIXED_PART_LEN.
    rewrite !addr_at_spec, slice_from_spec by lia. reflexivity.
Qed.

Lemma payload_by_type_eq bs : Icmpv6PayloadSlice.payload_slice_view_by_type bs = icmp6_payload bs.
Proof.
  unfold Icmpv6PayloadSlice.payload_slice_view_by_type, icmp6_payload.
  rewrite icmp6_eq. destruct (icmp6 bs) as [[ty p]|e|n]; try reflexivity.
  rewrite payload_from_slice_spec.
  destruct (len p <? ndp_fixed_len (payload_kind_of ty)) eqn:E; [reflexivity|].
  apply N.ltb_ge in E. apply payload_accessors_spec. exact E.
Qed.

Lemma payload_eq bs : Icmpv6PayloadSlice.payload_slice_view bs = icmp6_payload bs.
Proof.
  rewrite <- payload_by_type_eq.
  unfold Icmpv6PayloadSlice.payload_slice_view, Icmpv6PayloadSlice.payload_slice_view_by_type,
    Icmpv6Slice.view.
  destruct (Icmpv6Slice.from_slice bs) as [s|e|n] eqn:F; try reflexivity.
  assert (E8 : (len s <? 8) = false /\ s = bs).
  { unfold Icmpv6Slice.from_slice, Icmpv6Slice.MIN_LEN in F.
    destruct (len bs <? 8) eqn:E; [discriminate|].
    destruct (_ <? len bs); [discriminate|]. inversion F. subst. auto. }
  destruct E8 as [E8 ->].
  rewrite (icmp6_payload_rest bs E8).
  destruct (len_ge_cons8 bs E8) as (t & c & k0 & k1 & b4 & b5 & b6 & b7 & rest & ->).
  destruct (icmp6_cases t c k0 k1 b4 b5 b6 b7 rest) as [Ht Hp]. cbv zeta in Ht, Hp.
  rewrite Ht. rewrite <- Hp. reflexivity.
Qed.
(* ---------------- NDP options ---------------- *)
Lemma take_cons2 {A} (a b : A) tl n : 2 <= n -> take n (a :: b :: tl) = a :: b :: take (n - 2) tl.
Proof.
  intros H. unfold take.
  replace (N.to_nat n) with (S (S (N.to_nat (n - 2)))) by lia. reflexivity.
Qed.

Lemma mul8_eqb lu k : (lu * 8 =? k * 8) = (lu =? k).
Proof.
  destruct (N.eqb_spec lu k) as [->|H]; [apply N.eqb_refl|].
  apply N.eqb_neq. lia.
Qed.

Lemma parse_next_spec ty lu tl :
  let r := ty :: lu :: tl in
  Ndp.parse_next_option r =
    if opt_reject r then Ndp.NErr (opt_error r)
    else Ndp.NOk (opt_kind ty, take (lu * 8) r, drop (lu * 8) r).
Proof.
  intros r. subst r.
  unfold Ndp.parse_next_option, opt_reject, opt_error.
  cbn [Ndp.header_from_slice].
  rewrite (N.eqb_sym 0 lu).
  destruct (lu =? 0) eqn:E0; [reflexivity|].
  cbn [orb]. unfold Ndp.split_at_checked, Ndp.byte_len.
  rewrite (N.ltb_antisym (lu * 8) (len (ty :: lu :: tl))).
  destruct (lu * 8 <=? len (ty :: lu :: tl)) eqn:El; [|reflexivity].
  cbn [negb orb].
  apply N.eqb_neq in E0. apply N.leb_le in El.
  assert (Hlen : len (take (lu * 8) (ty :: lu :: tl)) = lu * 8) by (rewrite len_take; lia).
  rewrite take_cons2 in * by lia.
  set (o := take (lu * 8 - 2) tl) in *.
  assert (E0' : (0 =? lu) = false) by (apply N.eqb_neq; lia).
  assert (E8 : (lu * 8 <? 8) = false) by (apply N.ltb_ge; lia).
  dN ty 3%nat;
    cbn [opt_fixed_units opt_kind];
    unfold Ndp.unknown_from_slice, Ndp.link_layer_from_slice, Ndp.redirected_header_from_slice,
      Ndp.mtu_from_slice, Ndp.prefix_information_from_slice, Ndp.byte_len, Ndp.MTU_LEN,
      Ndp.PREFIX_INFORMATION_LEN;
    cbn [Ndp.header_from_slice]; rewrite ?Hlen, ?E8, ?E0', ?N.eqb_refl; try reflexivity.
  - (* 5 MTU *)
    replace (lu * 8 =? 8) with (lu =? 1) by (symmetry; apply (mul8_eqb lu 1)).
    destruct (lu =? 1) eqn:E1; [|reflexivity].
    cbn [negb]. change (rd (5 :: lu :: o) 0) with (Some 5). change (rd (5 :: lu :: o) 1) with (Some lu).
    cbv beta iota. rewrite ?E1. reflexivity.
  - (* 3 prefix information *)
    replace (lu * 8 =? 32) with (lu =? 4) by (symmetry; apply (mul8_eqb lu 4)).
    destruct (lu =? 4) eqn:E4; [|reflexivity].
    cbn [negb]. cbv beta iota. rewrite ?E4. reflexivity.
Qed.

Lemma accepted_shrinks ty lu tl :
  opt_reject (ty :: lu :: tl) = false ->
  (length (drop (lu * 8) (ty :: lu :: tl)) + 8 <= length (ty :: lu :: tl))%nat
  /\ lu <> 0 /\ lu * 8 <= len (ty :: lu :: tl).
Proof.
  unfold opt_reject. intros H.
  apply orb_false_elim in H. destruct H as [H _].
  apply orb_false_elim in H. destruct H as [H0 Hl].
  apply N.eqb_neq in H0. apply N.ltb_ge in Hl.
  repeat split; try assumption.
  unfold drop. rewrite skipn_length. unfold len in Hl. lia.
Qed.

Lemma collect_S f r :
  Ndp.collect (S f) r =
    match Ndp.next r with
    | None => Some []
    | Some (it, r') => match Ndp.collect f r' with Some l => Some (it :: l) | None => None end
    end.
Proof. reflexivity. Qed.

Lemma collect_eq : forall n r, (length r <= n)%nat ->
  Ndp.collect (S n) r = Some (parse_opts n r).
Proof.
  induction n as [|m IH]; intros r Hr.
  - destruct r; [reflexivity|cbn [length] in Hr; lia].
  - destruct r as [|ty [|lu tl]]; [reflexivity|reflexivity|].
    rewrite collect_S. cbn [parse_opts]. unfold Ndp.next.
    rewrite parse_next_spec. cbv zeta.
    destruct (opt_reject (ty :: lu :: tl)) eqn:Er; [reflexivity|].
    destruct (accepted_shrinks ty lu tl Er) as (Hs & _ & _).
    rewrite IH by (cbn [length] in *; lia). reflexivity.
Qed.

Lemma parse_opts_tile : forall n r, (length r <= n)%nat -> opts_tile r (parse_opts n r).
Proof.
  induction n as [|m IH]; intros r Hr.
  - destruct r; [constructor|cbn [length] in Hr; lia].
  - destruct r as [|ty [|lu tl]].
    + constructor.
    + cbn [parse_opts]. apply T_rej; [discriminate|reflexivity].
    + cbn [parse_opts].
      destruct (opt_reject (ty :: lu :: tl)) eqn:Er.
      * apply T_rej; [discriminate|exact Er].
      * apply T_acc; [exact Er|].
        destruct (accepted_shrinks ty lu tl Er) as (Hs & _ & _).
        apply IH. cbn [length] in *. lia.
Qed.

Lemma ndp_iter_spec area :
  Ndp.collect (S (length area)) area = Some (parse_opts (length area) area)
  /\ opts_tile area (parse_opts (length area) area).
Proof. split; [apply collect_eq | apply parse_opts_tile]; apply Nat.le_refl. Qed.

Definition is_ok (i : item) : Prop := exists k s, i = IOk k s.

Lemma tile_split r items : opts_tile r items ->
  exists rest, r = ok_bytes items ++ rest /\
    ((rest = [] /\ Forall is_ok items) \/
     (rest <> [] /\ opt_reject rest = true /\
      exists oks, items = oks ++ [IErr (opt_error rest)] /\ Forall is_ok oks)).
Proof.
  induction 1 as [|r Hne Hr|ty lu tl items Hr Ht IH].
  - exists []. split; [reflexivity|]. left. split; [reflexivity|constructor].
  - exists r. split; [reflexivity|]. right. repeat split; try assumption.
    exists []. split; [reflexivity|constructor].
  - destruct IH as (rest & Heq & Hcase). exists rest. split.
    + cbn [ok_bytes]. rewrite <- app_assoc, <- Heq. symmetry. apply take_drop.
    + destruct Hcase as [[-> Hall]|(Hne & Hrej & oks & -> & Hall)].
      * left. split; [reflexivity|]. constructor; [eexists; eexists; reflexivity|exact Hall].
      * right. repeat split; try assumption.
        exists (IOk (opt_kind ty) (take (lu * 8) (ty :: lu :: tl)) :: oks). split; [reflexivity|].
        constructor; [eexists; eexists; reflexivity|exact Hall].
Qed.

Lemma tile_shapes r items : opts_tile r items ->
  Forall (fun i => match i with IOk k s => opt_shape_ok k s | IErr _ => True | IUB _ => False end) items.
Proof.
  induction 1 as [|r Hne Hr|ty lu tl items Hr Ht IH].
  - constructor.
  - constructor; [exact I|constructor].
  - constructor; [|exact IH].
    destruct (accepted_shrinks ty lu tl Hr) as (_ & H0 & Hl).
    unfold opt_shape_ok. rewrite take_cons2 by lia.
    exists ty, lu, (take (lu * 8 - 2) tl). repeat split; try assumption.
    + rewrite <- take_cons2 by lia. rewrite len_take. lia.
    + intros u Hu. unfold opt_reject in Hr. rewrite Hu in Hr.
      apply orb_false_elim in Hr. destruct Hr as [_ Hr].
      apply negb_false_iff in Hr. apply N.eqb_eq in Hr. exact Hr.
Qed.

Lemma tile_count r items : opts_tile r items -> 8 * ok_count items <= len r.
Proof.
  induction 1 as [|r Hne Hr|ty lu tl items Hr Ht IH].
  - cbn. lia.
  - cbn [ok_count]. lia.
  - cbn [ok_count]. destruct (accepted_shrinks ty lu tl Hr) as (_ & H0 & Hl).
    rewrite len_drop in IH. lia.
Qed.

Lemma tile_count_div r items : opts_tile r items -> ok_count items <= len r / 8.
Proof.
  intros H. apply tile_count in H. apply N.div_le_lower_bound; [discriminate|exact H].
Qed.

Lemma tile_det r i1 : opts_tile r i1 -> forall i2, opts_tile r i2 -> i1 = i2.
Proof.
  induction 1 as [|r Hne Hr|ty lu tl items Hr Ht IH]; intros i2 H2.
  - inversion H2; subst; [reflexivity|congruence].
  - inversion H2; subst; [congruence|reflexivity|congruence].
  - inversion H2; subst; [congruence|]. f_equal. apply IH. assumption.
Qed.

Lemma next_err_exhausted r e r' : Ndp.next r = Some (IErr e, r') -> r' = [] /\ Ndp.next r' = None.
Proof.
  unfold Ndp.next. destruct r as [|x r0]; [discriminate|].
  destruct (Ndp.parse_next_option (x :: r0)) as [[[k s] rest]|e'|n]; intros H; inversion H; subst.
  split; reflexivity.
Qed.

Lemma next_ok_prefix r k s r' : Ndp.next r = Some (IOk k s, r') -> r = s ++ r' /\ 8 <= len s.
Proof.
  unfold Ndp.next. destruct r as [|ty [|lu tl]]; [discriminate|cbn; discriminate|].
  rewrite parse_next_spec. cbv zeta.
  destruct (opt_reject (ty :: lu :: tl)) eqn:Er; intros H; inversion H; subst.
  destruct (accepted_shrinks ty lu tl Er) as (_ & H0 & Hl).
  split; [symmetry; apply take_drop|]. rewrite len_take. lia.
Qed.

Lemma opt_accessors_spec k s : opt_shape_ok k s -> Ndp.opt_accessors k s = Ok (opt_view k s).
Proof.
  intros (ty & lu & tl & -> & -> & H0 & Hl & Hfix).
  assert (H8 : 8 <= len (ty :: lu :: tl)) by lia.
  dN ty 3%nat; cbn [opt_kind Ndp.opt_accessors opt_view]; unfold Ndp.NDP_OPTION_HEADER_LEN;
    try (rewrite slice_from_spec by lia; reflexivity).
  - (* MTU *) rewrite get_unchecked_be_u32_spec by lia. reflexivity.
  - (* prefix *)
    assert (lu = 4) by (apply Hfix; reflexivity). subst lu.
    rewrite !rd_byte_at, slice_from_spec, !be_u32_at_spec by lia.
    rewrite first_chunk_spec by (rewrite len_drop; lia).
    rewrite mask_ne0_128, mask_ne0_64. reflexivity.
Qed.
(* ---------------- IGMP ---------------- *)
Lemma rest_after_spec s n : n <= len s -> Igmp.rest_after s n = Some (drop n s).
Proof.
  intros H. unfold Igmp.rest_after.
  replace (n <=? len s) with true by (symmetry; apply N.leb_le; exact H).
  apply from_raw_parts_rest. exact H.
Qed.

Definition spec_igmp_type (t m g0 g1 g2 g3 : N) (s : bytes) : IgmpType :=
  match lookup1 t igmp_table with Some f => f s | None => IgUnknown t m g0 g1 g2 g3 end.

Lemma igmp_cases t m c0 c1 g0 g1 g2 g3 rest :
  let s := t :: m :: c0 :: c1 :: g0 :: g1 :: g2 :: g3 :: rest in
  Igmp.from_slice s =
    if len s <? 8 then ErrLen (mkLenError 8 (len s) LsSlice LIgmp 0) else
    if t =? 17 then
      if 8 =? len s then
        match Igmp.rest_after s 8 with
        | Some r => Ok (IgMembershipQuery m g0 g1 g2 g3, be16 c0 c1, r)
        | None => UB 60
        end
      else if 12 <=? len s then
        match get_unchecked s 8, get_unchecked s 9, get_unchecked_be_u16 s 10, Igmp.rest_after s 12 with
        | Some raw_byte_8, Some qqic, Some n, Some r =>
            Ok (IgMembershipQueryWithSources m g0 g1 g2 g3 raw_byte_8 qqic n, be16 c0 c1, r)
        | _, _, _, _ => UB 61
        end
      else ErrLen (mkLenError 12 (len s) LsSlice LIgmp 0)
    else
      match Igmp.rest_after s 8 with
      | Some r => Ok (spec_igmp_type t m g0 g1 g2 g3 s, be16 c0 c1, r)
      | None => UB 60
      end.
Proof.
  intros s. dN t 6%nat; reflexivity.
Qed.

Lemma spec_igmp_type_hl t m g0 g1 g2 g3 s : Igmp.header_len (spec_igmp_type t m g0 g1 g2 g3 s) = 8.
Proof.
  unfold spec_igmp_type, igmp_table, lookup1.
  repeat (destruct (_ =? t); [reflexivity|]). reflexivity.
Qed.

Lemma igmp_eq bs : Igmp.view bs = igmp bs.
Proof.
  unfold Igmp.view, igmp.
  destruct (len bs <? 8) eqn:E8.
  { unfold Igmp.from_slice, Igmp.MIN_LEN. rewrite E8. reflexivity. }
  destruct (len_ge_cons8 bs E8) as (t & m & c0 & c1 & g0 & g1 & g2 & g3 & rest & ->).
  rewrite igmp_cases. cbv zeta. rewrite E8.
  change (byte_at (t :: m :: c0 :: c1 :: g0 :: g1 :: g2 :: g3 :: rest) 0) with t.
  set (s := t :: m :: c0 :: c1 :: g0 :: g1 :: g2 :: g3 :: rest) in *.
  apply N.ltb_ge in E8.
  destruct (t =? 17).
  - rewrite (N.eqb_sym 8 (len s)).
    destruct (len s =? 8) eqn:E.
    + rewrite rest_after_spec by lia. reflexivity.
    + destruct (12 <=? len s) eqn:E12; [|reflexivity].
      apply N.leb_le in E12.
      rewrite !get_unchecked_spec, get_unchecked_be_u16_spec, rest_after_spec by lia.
      reflexivity.
  - rewrite rest_after_spec by lia. rewrite spec_igmp_type_hl. unfold spec_igmp_type.
    destruct (lookup1 t igmp_table); reflexivity.
Qed.

Lemma group_record_eq bs : Igmp.group_record_from_slice bs = group_record bs.
Proof.
  unfold Igmp.group_record_from_slice, group_record.
  destruct (len bs <? 8) eqn:E8; [reflexivity|]. apply N.ltb_ge in E8.
  rewrite !get_unchecked_spec, get_unchecked_be_u16_spec, get4_unchecked_spec, rest_after_spec by lia.
  reflexivity.
Qed.

(* finite sweeps over one octet *)
Fixpoint range (n : nat) : list N :=
  match n with O => [] | S k => range k ++ [N.of_nat k] end.
Lemma range_complete n x : x < N.of_nat n -> In x (range n).
Proof.
  induction n as [|k IH]; intros H; [lia|].
  cbn [range]. apply in_or_app.
  destruct (N.eq_dec x (N.of_nat k)) as [->|Hne]; [right; left; reflexivity|].
  left. apply IH. lia.
Qed.
Lemma byte_sweep (P : N -> bool) : forallb P (range 256) = true -> forall x, x < 256 -> P x = true.
Proof.
  intros H x Hx. rewrite forallb_forall in H. apply H. apply range_complete. exact Hx.
Qed.

Definition beq (a b : bool) : bool := if a then b else negb b.
Lemma beq_eq a b : beq a b = true -> a = b.
Proof. destruct a, b; cbn; congruence. Qed.

Lemma igmp_byte_fields c : c < 256 ->
  Igmp.as_10th_secs c = max_resp_time c /\ Igmp.flags c = query_flags c /\
  Igmp.s_flag c = query_s_flag c /\ Igmp.qrv c = query_qrv c.
Proof.
  intros H.
  assert (S : forallb (fun c => (Igmp.as_10th_secs c =? max_resp_time c) && (Igmp.flags c =? query_flags c)
                         && beq (Igmp.s_flag c) (query_s_flag c) && (Igmp.qrv c =? query_qrv c))
                (range 256) = true) by (vm_compute; reflexivity).
  pose proof (byte_sweep _ S c H) as B. cbv beta in B.
  apply andb_prop in B. destruct B as [B B4].
  apply andb_prop in B. destruct B as [B B3].
  apply andb_prop in B. destruct B as [B1 B2].
  repeat split; [apply N.eqb_eq | apply N.eqb_eq | apply beq_eq | apply N.eqb_eq]; assumption.
Qed.
(* ---------------- ARP ---------------- *)
Lemma bytes_at_take s total off n : off + n <= total ->
  bytes_at (take total s) off n = bytes_at s off n.
Proof.
  intros H. unfold bytes_at, take, drop.
  rewrite skipn_firstn_comm, firstn_firstn. f_equal. lia.
Qed.

Lemma u16_at_take s n i : i + 2 <= n -> u16_at (take n s) i = u16_at s i.
Proof. intros H. unfold u16_at. rewrite !byte_at_take by lia. reflexivity. Qed.

Lemma len_bytes_at s off n : off + n <= len s -> len (bytes_at s off n) = n.
Proof. intros H. unfold bytes_at. rewrite len_take, len_drop. lia. Qed.

Lemma byte_at_ok bs i : bytes_ok bs -> byte_at bs i < 256.
Proof.
  intros H. unfold byte_at.
  destruct (nth_in_or_default (N.to_nat i) bs 0) as [Hin| ->]; [|lia].
  unfold bytes_ok in H. rewrite Forall_forall in H. apply H. exact Hin.
Qed.

Definition arp_total (bs : bytes) : N := 8 + 2 * byte_at bs 4 + 2 * byte_at bs 5.

Lemma arp_from_slice_spec bs :
  Arp.from_slice bs =
    if len bs <? 8 then ErrLen (mkLenError 8 (len bs) LsSlice LArp 0)
    else if len bs <? arp_total bs then ErrLen (mkLenError (arp_total bs) (len bs) LsArpAddrLengths LArp 0)
    else Ok (take (arp_total bs) bs).
Proof.
  unfold Arp.from_slice, arp_total.
  destruct (len bs <? 8) eqn:E8; [reflexivity|]. apply N.ltb_ge in E8.
  rewrite !get_unchecked_spec by lia.
  replace (8 + byte_at bs 4 * 2 + byte_at bs 5 * 2) with (8 + 2 * byte_at bs 4 + 2 * byte_at bs 5) by lia.
  destruct (len bs <? _) eqn:Et; [reflexivity|]. apply N.ltb_ge in Et.
  rewrite from_raw_parts_spec by lia. reflexivity.
Qed.

Section ArpAccessors.
  Variable bs : bytes.
  Hypothesis H8 : 8 <= len bs.
  Hypothesis Ht : arp_total bs <= len bs.
  Let s := take (arp_total bs) bs.
  Let hs := byte_at bs 4.
  Let ps := byte_at bs 5.

  Lemma arp_len_s : len s = 8 + 2 * hs + 2 * ps.
  Proof. subst s hs ps. rewrite len_take. unfold arp_total in *. lia. Qed.

  Lemma arp_fields :
    Arp.hw_addr_type s = Some (u16_at bs 0) /\ Arp.proto_addr_type s = Some (u16_at bs 2) /\
    Arp.hw_addr_size s = Some hs /\ Arp.proto_addr_size s = Some ps /\
    Arp.operation s = Some (u16_at bs 6).
  Proof.
    pose proof arp_len_s as L.
    unfold Arp.hw_addr_type, Arp.proto_addr_type, Arp.hw_addr_size, Arp.proto_addr_size, Arp.operation.
    rewrite !get_unchecked_be_u16_spec, !get_unchecked_spec by lia.
    subst s. rewrite !u16_at_take, !byte_at_take by (unfold arp_total; lia).
    repeat split; reflexivity.
  Qed.

  Lemma arp_addr off n : off + n <= 8 + 2 * hs + 2 * ps ->
    Arp.addr s off n = Some (off, bytes_at bs off n).
  Proof.
    intros H. pose proof arp_len_s as L. unfold Arp.addr.
    rewrite from_raw_parts_spec by lia.
    subst s. rewrite bytes_at_take by (unfold arp_total; subst hs ps; lia). reflexivity.
  Qed.

  Lemma arp_addrs :
    Arp.sender_hw_addr s = Some (8, bytes_at bs 8 hs) /\
    Arp.sender_protocol_addr s = Some (8 + hs, bytes_at bs (8 + hs) ps) /\
    Arp.target_hw_addr s = Some (8 + hs + ps, bytes_at bs (8 + hs + ps) hs) /\
    Arp.target_protocol_addr s = Some (8 + 2 * hs + ps, bytes_at bs (8 + 2 * hs + ps) ps).
  Proof.
    destruct arp_fields as (_ & _ & Hh & Hp & _).
    unfold Arp.sender_hw_addr, Arp.sender_protocol_addr, Arp.target_hw_addr, Arp.target_protocol_addr.
    rewrite Hh, Hp.
    replace (8 + hs * 2 + ps) with (8 + 2 * hs + ps) by lia.
    rewrite !arp_addr by lia. repeat split; reflexivity.
  Qed.
End ArpAccessors.

Lemma arp_view_eq bs : Arp.slice_view bs = arp_view bs.
Proof.
  unfold Arp.slice_view, arp_view. rewrite arp_from_slice_spec. fold (arp_total bs).
  destruct (len bs <? 8) eqn:E8; [reflexivity|]. apply N.ltb_ge in E8.
  destruct (len bs <? arp_total bs) eqn:Et; [reflexivity|]. apply N.ltb_ge in Et.
  destruct (arp_fields bs E8 Et) as (-> & -> & -> & -> & ->).
  destruct (arp_addrs bs E8 Et) as (-> & -> & -> & ->).
  rewrite (arp_len_s bs E8 Et). reflexivity.
Qed.

Lemma arp_eth_ipv4_eq bs : bytes_ok bs -> Arp.eth_ipv4_view bs = arp_eth_ipv4 bs.
Proof.
  intros Hok. unfold Arp.eth_ipv4_view, arp_eth_ipv4. rewrite arp_from_slice_spec. fold (arp_total bs).
  destruct (len bs <? 8) eqn:E8; [reflexivity|]. apply N.ltb_ge in E8.
  destruct (len bs <? arp_total bs) eqn:Et; [reflexivity|]. apply N.ltb_ge in Et.
  unfold Arp.to_packet.
  destruct (arp_fields bs E8 Et) as (-> & -> & _ & _ & ->).
  destruct (arp_addrs bs E8 Et) as (-> & -> & -> & ->).
  pose proof (byte_at_ok bs 4 Hok) as Hh. pose proof (byte_at_ok bs 5 Hok) as Hp.
  unfold arp_total in Et.
  unfold Arp.try_eth_ipv4, Arp.new_unchecked.
  cbn [Arp.p_hw_addr_type Arp.p_proto_addr_type Arp.p_hw_addr_size Arp.p_proto_addr_size Arp.p_operation
       Arp.sender_hw_addr_buf Arp.sender_protocol_addr_buf Arp.target_hw_addr_buf Arp.target_protocol_addr_buf].
  rewrite !len_bytes_at by lia.
  rewrite (N.mod_small (byte_at bs 4)), (N.mod_small (byte_at bs 5)) by assumption.
  unfold ARP_HW_ETHERNET, ETHER_TYPE_IPV4.
  destruct (u16_at bs 0 =? 1); [|reflexivity].
  destruct (u16_at bs 2 =? 2048); [|reflexivity].
  destruct (byte_at bs 4 =? 6) eqn:E6; [|reflexivity].
  destruct (byte_at bs 5 =? 4) eqn:E4; [|reflexivity].
  apply N.eqb_eq in E6, E4. rewrite E6, E4 in *.
  cbn [negb]. unfold Arp.assume_init.
  rewrite !len_bytes_at by lia. cbn [N.leb N.compare Pos.compare Pos.compare_cont].
  rewrite !take_all by (rewrite len_bytes_at by lia; lia).
  reflexivity.
Qed.
Lemma icmp4_short bs : len bs < 8 ->
  Icmpv4Slice.view bs = ErrLen (mkLenError 8 (len bs) LsSlice LIcmpv4 0).
Proof.
  intros H. rewrite icmp4_eq. unfold icmp4. apply N.ltb_lt in H. rewrite H. reflexivity.
Qed.

Lemma icmp4_unassigned bs : 8 <= len bs ->
  lookup (byte_at bs 0) (byte_at bs 1) icmp4_fixed_table = None ->
  lookup (byte_at bs 0) (byte_at bs 1) icmp4_table = None ->
  Icmpv4Slice.view bs =
    Ok (V4Unknown (byte_at bs 0) (byte_at bs 1) (byte_at bs 4) (byte_at bs 5) (byte_at bs 6) (byte_at bs 7),
        8, drop 8 bs).
Proof.
  intros H H1 H2. rewrite icmp4_eq. unfold icmp4.
  apply N.ltb_ge in H. rewrite H, H1, H2. reflexivity.
Qed.

Lemma icmp4_timestamp_exact bs : 8 <= len bs ->
  (byte_at bs 0 = 13 \/ byte_at bs 0 = 14) -> byte_at bs 1 = 0 ->
  ((exists v, Icmpv4Slice.view bs = Ok v) <-> len bs = 20).
Proof.
  intros H Ht Hc. rewrite icmp4_eq. unfold icmp4.
  apply N.ltb_ge in H. rewrite H, Hc.
  destruct Ht as [-> | ->];
    [change (lookup 13 0 icmp4_fixed_table) with (Some (20, LIcmpv4Timestamp, V4TimestampRequest))
    |change (lookup 14 0 icmp4_fixed_table) with (Some (20, LIcmpv4TimestampReply, V4TimestampReply))];
    cbv beta iota;
    (destruct (len bs =? 20) eqn:E;
     [apply N.eqb_eq in E; split; [intros _; exact E | intros _; eexists; reflexivity]
     |apply N.eqb_neq in E; split; [intros [v Hv]; discriminate | intros; contradiction]]).
Qed.

Lemma icmp4_untyped_raw t c : In t icmp4_untyped_assigned ->
  lookup t c icmp4_table = None /\ lookup t c icmp4_fixed_table = None.
Proof.
  intros Hin. unfold icmp4_untyped_assigned in Hin.
  repeat (destruct Hin as [<-|Hin]; [split; reflexivity|]). destruct Hin.
Qed.

(* Icmpv4Slice::from_slice + icmp_type() hand every message of an assigned-but-untyped type
   (4 source quench, 6 alternate host address, 9/10 router discovery, 15/16 information,
   17/18 address mask) out in the raw form, with every code, header length 8 *)
Theorem icmp4_untyped_raw_model bs : 8 <= len bs -> In (byte_at bs 0) icmp4_untyped_assigned ->
  Icmpv4Slice.view bs =
    Ok (V4Unknown (byte_at bs 0) (byte_at bs 1) (byte_at bs 4) (byte_at bs 5) (byte_at bs 6) (byte_at bs 7),
        8, drop 8 bs).
Proof.
  intros H8 Hin. destruct (icmp4_untyped_raw _ (byte_at bs 1) Hin) as (A & B).
  now apply icmp4_unassigned.
Qed.

Lemma icmp6_short bs : len bs < 8 ->
  Icmpv6Slice.view bs = ErrLen (mkLenError 8 (len bs) LsSlice LIcmpv6 0).
Proof.
  intros H. rewrite icmp6_eq. unfold icmp6. apply N.ltb_lt in H. rewrite H. reflexivity.
Qed.

Lemma icmp6_unassigned bs : 8 <= len bs -> len bs <= MAX_ICMPV6_BYTE_LEN ->
  lookup (byte_at bs 0) (byte_at bs 1) icmp6_table = None ->
  Icmpv6Slice.view bs =
    Ok (V6Unknown (byte_at bs 0) (byte_at bs 1) (byte_at bs 4) (byte_at bs 5) (byte_at bs 6) (byte_at bs 7),
        drop 8 bs).
Proof.
  intros H Hm H1. rewrite icmp6_eq. unfold icmp6.
  apply N.ltb_ge in H. apply N.ltb_ge in Hm. rewrite H, Hm, H1. reflexivity.
Qed.

(* the NDP payload split in offsets of the whole ICMPv6 message *)
Lemma ndp_payload_split bs ty p : icmp6 bs = Ok (ty, p) ->
  p = drop 8 bs /\
  (ndp_fixed_len (payload_kind_of ty) <= len p ->
   Icmpv6PayloadSlice.payload_slice_view bs = Ok (ndp_payload_view (payload_kind_of ty) p)) /\
  (len p < ndp_fixed_len (payload_kind_of ty) ->
   Icmpv6PayloadSlice.payload_slice_view bs =
     ErrLen (mkLenError (ndp_fixed_len (payload_kind_of ty)) (len p) LsSlice LIcmpv6 0)).
Proof.
  intros H. split.
  - unfold icmp6 in H. destruct (len bs <? 8); [discriminate|].
    destruct (_ <? len bs); [discriminate|].
    destruct (lookup _ _ _); inversion H; reflexivity.
  - rewrite payload_eq. unfold icmp6_payload. rewrite H. split; intros L.
    + apply N.ltb_ge in L. rewrite L. reflexivity.
    + apply N.ltb_lt in L. rewrite L. reflexivity.
Qed.

Lemma ndp_options_full area :
  exists items,
    Ndp.collect (S (length area)) area = Some items /\
    items = parse_opts (length area) area /\
    opts_tile area items /\
    (exists rest, area = ok_bytes items ++ rest /\
       ((rest = [] /\ Forall is_ok items) \/
        (rest <> [] /\ opt_reject rest = true /\
         exists oks, items = oks ++ [IErr (opt_error rest)] /\ Forall is_ok oks))) /\
    Forall (fun i => match i with IOk k s => opt_shape_ok k s /\ Ndp.opt_accessors k s = Ok (opt_view k s)
                     | IErr _ => True | IUB _ => False end) items /\
    ok_count items <= len area / 8.
Proof.
  destruct (ndp_iter_spec area) as [Hc Ht].
  exists (parse_opts (length area) area). repeat split; try assumption.
  - apply tile_split. exact Ht.
  - pose proof (tile_shapes _ _ Ht) as Hs. rewrite Forall_forall in *. intros i Hi.
    specialize (Hs i Hi). destruct i; try assumption.
    split; [exact Hs|apply opt_accessors_spec; exact Hs].
  - apply tile_count_div. exact Ht.
Qed.

(* reject <-> : whatever satisfies the declarative relation is what the iterator yields *)
Lemma ndp_options_unique area items :
  opts_tile area items -> Ndp.collect (S (length area)) area = Some items.
Proof.
  intros H. destruct (ndp_iter_spec area) as [Hc Ht]. rewrite Hc. f_equal.
  eapply tile_det; eassumption.
Qed.

Lemma opt_reject_iff r : r <> [] ->
  (opt_reject r = true <->
   len r < 2 \/ byte_at r 1 = 0 \/ len r < byte_at r 1 * 8 \/
   exists u, opt_fixed_units (byte_at r 0) = Some u /\ byte_at r 1 <> u).
Proof.
  intros Hne. destruct r as [|ty [|lu tl]]; [congruence| |].
  - split; [intros _; left; unfold len; cbn; lia|reflexivity].
  - unfold opt_reject. change (byte_at (ty :: lu :: tl) 1) with lu. change (byte_at (ty :: lu :: tl) 0) with ty.
    rewrite !orb_true_iff, N.eqb_eq, N.ltb_lt. split.
    + intros [[H|H]|H]; [right; left; exact H|right; right; left; exact H|].
      right; right; right. destruct (opt_fixed_units ty) as [u|]; [|discriminate].
      exists u. split; [reflexivity|]. apply negb_true_iff in H. apply N.eqb_neq in H. exact H.
    + intros [H|[H|[H|(u & Hu & H)]]].
      * exfalso. revert H. unfold len. cbn [length]. lia.
      * left; left; exact H.
      * left; right; exact H.
      * right. rewrite Hu. apply negb_true_iff. apply N.eqb_neq. exact H.
Qed.
