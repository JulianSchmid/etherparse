(* CtlMsg/NdpOptCtors.v -- property C17.

   The typed NDP option slices can be constructed directly from ARBITRARY bytes:
     SourceLinkLayerAddressOptionSlice::from_slice, TargetLinkLayerAddressOptionSlice::from_slice,
     PrefixInformationOptionSlice::from_slice (= length check + PrefixInformation::from_bytes,
     which is also what the owned PrefixInformation::from_slice runs),
     RedirectedHeaderOptionSlice::from_slice, MtuOptionSlice::from_slice,
     UnknownNdpOptionSlice::from_slice
   (models: CtlMsg/Model.v, Ndp.link_layer_from_slice .. Ndp.unknown_from_slice).
   Through the iterator the option id and the length always fit, so the theorems about
   NdpOptionsIterator never see the `UnexpectedHeader` results.  Here: for every byte
   string, each constructor equals a closed form written with the fields at their RFC 4861
   offsets (Type = octet 0, Length = octet 1 in units of 8 octets): which check fails
   first and the exact error record; acceptance is exactly the option shape of
   CtlMsg/Spec.v (`opt_shape_ok`), so the field theorem (Proofs.opt_accessors_spec)
   applies to every directly constructed slice.  No `NUB` (the unwraps behind the length
   checks are unreachable). *)
From EP Require Import Base.Bytes CtlMsg.Spec CtlMsg.Model CtlMsg.Proofs.
From Coq Require Import Lia.
Local Open Scope N_scope.

Import Ndp.

(* ---- closed forms ---------------------------------------------------------------- *)
(* NdpOptionHeader::from_slice on fewer than 2 octets: the option id of the error is the
   first octet, 0 when there is none (byte_at's default is exactly that) *)
Definition hdr_short (s : bytes) : ndp_err := UnexpectedSize (byte_at s 0) 2 (len s).

(* Source / Target link-layer address (expected = 1 / 2), RFC 4861 4.6.1 *)
Definition link_layer_ctor (expected : N) (s : bytes) : nres bytes :=
  if len s <? 2 then NErr (hdr_short s)
  else if negb (byte_at s 0 =? expected) then
    NErr (UnexpectedHeader expected (byte_at s 0) (byte_at s 1) (byte_at s 1))
  else if byte_at s 1 =? 0 then NErr (ZeroLength (byte_at s 0))
  else if negb (byte_at s 1 * 8 =? len s) then NErr (UnexpectedSize (byte_at s 0) (byte_at s 1 * 8) (len s))
  else NOk s.

(* Prefix information, 4.6.2: exactly 32 octets, Type 3, Length 4 *)
Definition prefix_ctor (s : bytes) : nres bytes :=
  if negb (len s =? 32) then NErr (UnexpectedSize 3 32 (len s))
  else if (byte_at s 0 =? 3) && (byte_at s 1 =? 4) then NOk s
  else NErr (UnexpectedHeader 3 (byte_at s 0) 4 (byte_at s 1)).

(* Redirected header, 4.6.3: at least the 8 fixed octets, Type 4, Length * 8 = size *)
Definition redirected_ctor (s : bytes) : nres bytes :=
  if len s <? 8 then NErr (UnexpectedSize 4 8 (len s))
  else if negb (byte_at s 0 =? 4) then NErr (UnexpectedHeader 4 (byte_at s 0) (byte_at s 1) (byte_at s 1))
  else if byte_at s 1 =? 0 then NErr (ZeroLength (byte_at s 0))
  else if negb (byte_at s 1 * 8 =? len s) then NErr (UnexpectedSize (byte_at s 0) (byte_at s 1 * 8) (len s))
  else NOk s.

(* MTU, 4.6.4: exactly 8 octets, Type 5, Length 1 *)
Definition mtu_ctor (s : bytes) : nres bytes :=
  if negb (len s =? 8) then NErr (UnexpectedSize 5 8 (len s))
  else if (byte_at s 0 =? 5) && (byte_at s 1 =? 1) then NOk s
  else NErr (UnexpectedHeader 5 (byte_at s 0) 1 (byte_at s 1)).

(* any other option: only the generic rule, the type is not looked at *)
Definition unknown_ctor (s : bytes) : nres bytes :=
  if len s <? 2 then NErr (hdr_short s)
  else if byte_at s 1 =? 0 then NErr (ZeroLength (byte_at s 0))
  else if negb (byte_at s 1 * 8 =? len s) then NErr (UnexpectedSize (byte_at s 0) (byte_at s 1 * 8) (len s))
  else NOk s.

(* the typed constructors by option kind *)
Definition typed_ctor (k : ndp_kind) (s : bytes) : nres bytes :=
  match k with
  | KSrcLL => link_layer_from_slice 1 s
  | KTgtLL => link_layer_from_slice 2 s
  | KPrefix => prefix_information_from_slice s
  | KRedir => redirected_header_from_slice s
  | KMtu => mtu_from_slice s
  | KUnknownOpt => unknown_from_slice s
  end.
Definition typed_ctor_spec (k : ndp_kind) (s : bytes) : nres bytes :=
  match k with
  | KSrcLL => link_layer_ctor 1 s
  | KTgtLL => link_layer_ctor 2 s
  | KPrefix => prefix_ctor s
  | KRedir => redirected_ctor s
  | KMtu => mtu_ctor s
  | KUnknownOpt => unknown_ctor s
  end.

Lemma len_lt2_cases (s : bytes) : (len s <? 2) = true -> s = [] \/ exists x, s = [x].
Proof.
  intros H. apply N.ltb_lt in H. destruct s as [|x [|y r]]; [now left|right; now exists x|].
  len_absurd H.
Qed.

Lemma len_cons2 {A} (a b : A) tl : (len (a :: b :: tl) <? 2) = false.
Proof. apply N.ltb_ge. unfold len. cbn [length]. lia. Qed.

Lemma link_layer_ctor_eq expected s : link_layer_from_slice expected s = link_layer_ctor expected s.
Proof.
  unfold link_layer_from_slice, link_layer_ctor, hdr_short.
  destruct (len s <? 2) eqn:E2.
  - destruct (len_lt2_cases s E2) as [->|(x & ->)]; reflexivity.
  - destruct s as [|t [|l tl]]; try discriminate E2.
    cbn [header_from_slice]. change (byte_at (t :: l :: tl) 0) with t. change (byte_at (t :: l :: tl) 1) with l.
    rewrite (N.eqb_sym expected t), (N.eqb_sym 0 l). unfold byte_len. reflexivity.
Qed.

Lemma unknown_ctor_eq s : unknown_from_slice s = unknown_ctor s.
Proof.
  unfold unknown_from_slice, unknown_ctor, hdr_short.
  destruct (len s <? 2) eqn:E2.
  - destruct (len_lt2_cases s E2) as [->|(x & ->)]; reflexivity.
  - destruct s as [|t [|l tl]]; try discriminate E2.
    cbn [header_from_slice]. change (byte_at (t :: l :: tl) 0) with t. change (byte_at (t :: l :: tl) 1) with l.
    rewrite (N.eqb_sym 0 l). unfold byte_len. reflexivity.
Qed.

Lemma redirected_ctor_eq s : redirected_header_from_slice s = redirected_ctor s.
Proof.
  unfold redirected_header_from_slice, redirected_ctor.
  destruct (len s <? 8) eqn:E8; [reflexivity|].
  destruct s as [|t [|l tl]]; try (exfalso; apply N.ltb_ge in E8; revert E8; unfold len; cbn [length]; lia).
  cbn [header_from_slice]. change (byte_at (t :: l :: tl) 0) with t. change (byte_at (t :: l :: tl) 1) with l.
  rewrite (N.eqb_sym 4 t), (N.eqb_sym 0 l). unfold byte_len. reflexivity.
Qed.

Lemma prefix_ctor_eq s : prefix_information_from_slice s = prefix_ctor s.
Proof.
  unfold prefix_information_from_slice, prefix_ctor, PREFIX_INFORMATION_LEN.
  destruct (len s =? 32) eqn:E; cbn [negb]; [|reflexivity].
  apply N.eqb_eq in E.
  destruct s as [|t [|l tl]]; try (exfalso; revert E; unfold len; cbn [length]; lia).
  change (byte_at (t :: l :: tl) 0) with t. change (byte_at (t :: l :: tl) 1) with l. reflexivity.
Qed.

Lemma mtu_ctor_eq s : mtu_from_slice s = mtu_ctor s.
Proof.
  unfold mtu_from_slice, mtu_ctor, MTU_LEN.
  destruct (len s =? 8) eqn:E; cbn [negb]; [|reflexivity].
  apply N.eqb_eq in E.
  destruct s as [|t [|l tl]]; try (exfalso; revert E; unfold len; cbn [length]; lia).
  change (rd (t :: l :: tl) 0) with (Some t). change (rd (t :: l :: tl) 1) with (Some l).
  change (byte_at (t :: l :: tl) 0) with t. change (byte_at (t :: l :: tl) 1) with l.
  cbv beta iota. destruct (t =? 5), (l =? 1); reflexivity.
Qed.

Theorem typed_ctor_eq k s : typed_ctor k s = typed_ctor_spec k s.
Proof.
  destruct k; cbn [typed_ctor typed_ctor_spec].
  - apply link_layer_ctor_eq.
  - apply link_layer_ctor_eq.
  - apply prefix_ctor_eq.
  - apply redirected_ctor_eq.
  - apply mtu_ctor_eq.
  - apply unknown_ctor_eq.
Qed.

(* ---- acceptance = the RFC shape -------------------------------------------------- *)
(* the kind a constructor is for and the first octet *)
Definition kind_type_ok (k : ndp_kind) (ty : N) : Prop :=
  match k with
  | KSrcLL => ty = 1 | KTgtLL => ty = 2 | KPrefix => ty = 3 | KRedir => ty = 4 | KMtu => ty = 5
  | KUnknownOpt => True
  end.

(* accepted: at least Type and Length, Type is the constructor's (any for the unknown
   option slice), Length is not 0, Length * 8 is the size, and the fixed size of the type
   when it has one (3: 4 units, 5: 1 unit; only checked by the constructors of these
   types, the unknown option slice accepts e.g. type 3 with 1 unit) *)
Definition ctor_shape (k : ndp_kind) (s : bytes) : Prop :=
  exists ty lu tl, s = ty :: lu :: tl /\ kind_type_ok k ty /\ lu <> 0 /\ len s = lu * 8 /\
    (k <> KUnknownOpt -> forall u, opt_fixed_units ty = Some u -> lu = u).

Lemma nres_ok_inj (a b : bytes) : @NOk bytes a = NOk b -> a = b.
Proof. intros H. now injection H. Qed.

(* what each shape of constructor accepts: the generic tests (Type and Length present,
   Length <> 0, Length * 8 = size); a typed constructor adds the test of the Type; the two
   constructors of fixed size test size, Type and Length only *)
Lemma unknown_ctor_ok s r : unknown_ctor s = NOk r ->
  exists tl, s = byte_at s 0 :: byte_at s 1 :: tl /\ byte_at s 1 <> 0 /\ len s = byte_at s 1 * 8.
Proof.
  unfold unknown_ctor. intros H.
  destruct (len s <? 2) eqn:E2; [discriminate|].
  destruct (N.eqb_spec (byte_at s 1) 0) as [|E0]; [discriminate|].
  destruct (N.eqb_spec (byte_at s 1 * 8) (len s)) as [El|]; [|discriminate].
  destruct s as [|t [|l tl]]; try discriminate E2. exists tl. auto.
Qed.

Lemma link_layer_ctor_ok e s r : link_layer_ctor e s = NOk r -> byte_at s 0 = e /\ unknown_ctor s = NOk r.
Proof.
  unfold link_layer_ctor, unknown_ctor. intros H.
  destruct (len s <? 2); [discriminate|].
  destruct (N.eqb_spec (byte_at s 0) e) as [Et|]; [|discriminate]. auto.
Qed.

Lemma redirected_ctor_ok s r : redirected_ctor s = NOk r -> byte_at s 0 = 4 /\ unknown_ctor s = NOk r.
Proof.
  unfold redirected_ctor, unknown_ctor. intros H.
  destruct (N.ltb_spec (len s) 8) as [|L8]; [discriminate|].
  destruct (N.ltb_spec (len s) 2); [lia|].
  destruct (N.eqb_spec (byte_at s 0) 4) as [Et|]; [|discriminate]. auto.
Qed.

Lemma fixed_ctor_ok n ty u s : 2 <= n ->
  (len s =? n) = true -> (byte_at s 0 =? ty) && (byte_at s 1 =? u) = true ->
  exists tl, s = ty :: u :: tl /\ len s = n.
Proof.
  intros Hn E Eh. apply andb_prop in Eh. destruct Eh as (Et & El). apply N.eqb_eq in E, Et, El.
  destruct s as [|t [|l tl]]; try (exfalso; revert E Hn; unfold len; cbn [length]; lia).
  exists tl. change (byte_at (t :: l :: tl) 0) with t in Et. change (byte_at (t :: l :: tl) 1) with l in El.
  subst t l. auto.
Qed.

Lemma typed_units_shape k e s r : byte_at s 0 = e -> unknown_ctor s = NOk r ->
  kind_type_ok k e -> opt_fixed_units e = None -> ctor_shape k s.
Proof.
  intros Et H Hk Hf. apply unknown_ctor_ok in H. destruct H as (tl & Hs & H0 & Hl). rewrite Et in Hs.
  exists e, (byte_at s 1), tl. repeat split; auto. intros _ u Hu. congruence.
Qed.

Theorem typed_ctor_accept_iff k s : (exists r, typed_ctor k s = NOk r) <-> ctor_shape k s.
Proof.
  rewrite typed_ctor_eq. split.
  - intros (r & H). destruct k; cbn [typed_ctor_spec] in H.
    + apply link_layer_ctor_ok in H. destruct H as [Et H]. now apply (typed_units_shape _ 1 s r).
    + apply link_layer_ctor_ok in H. destruct H as [Et H]. now apply (typed_units_shape _ 2 s r).
    + unfold prefix_ctor in H. destruct (len s =? 32) eqn:E; [|discriminate].
      destruct (_ && _) eqn:Eh; [|discriminate].
      destruct (fixed_ctor_ok 32 3 4 s) as (tl & -> & Hl); auto; [lia|].
      exists 3, 4, tl. repeat split; auto; [discriminate|]. intros _ u [= <-]. reflexivity.
    + apply redirected_ctor_ok in H. destruct H as [Et H]. now apply (typed_units_shape _ 4 s r).
    + unfold mtu_ctor in H. destruct (len s =? 8) eqn:E; [|discriminate].
      destruct (_ && _) eqn:Eh; [|discriminate].
      destruct (fixed_ctor_ok 8 5 1 s) as (tl & -> & Hl); auto; [lia|].
      exists 5, 1, tl. repeat split; auto; [discriminate|]. intros _ u [= <-]. reflexivity.
    + apply unknown_ctor_ok in H. destruct H as (tl & Hs & H0 & Hl).
      exists (byte_at s 0), (byte_at s 1), tl. repeat split; auto. intros X. now destruct X.
  - intros (ty & lu & tl & -> & Hk & H0 & Hl & Hf). exists (ty :: lu :: tl).
    assert (E0 : (lu =? 0) = false) by now apply N.eqb_neq.
    assert (El : (lu * 8 =? len (ty :: lu :: tl)) = true) by (apply N.eqb_eq; now rewrite Hl).
    assert (L8 : 8 <= len (ty :: lu :: tl)) by lia.
    destruct k; cbn [typed_ctor_spec kind_type_ok] in *;
      unfold link_layer_ctor, prefix_ctor, redirected_ctor, mtu_ctor, unknown_ctor;
      rewrite ?len_cons2;
      change (byte_at (ty :: lu :: tl) 0) with ty; change (byte_at (ty :: lu :: tl) 1) with lu;
      try subst ty; rewrite ?E0, ?El; cbn [negb N.eqb Pos.eqb]; try reflexivity.
    + assert (lu = 4) by (apply Hf; [discriminate|reflexivity]). subst lu.
      rewrite Hl. reflexivity.
    + destruct (len (4 :: lu :: tl) <? 8) eqn:E8; [apply N.ltb_lt in E8; lia|reflexivity].
    + assert (lu = 1) by (apply Hf; [discriminate|reflexivity]). subst lu.
      rewrite Hl. reflexivity.
Qed.

(* the accepted slice is the input, and for the five typed kinds it has the option shape
   of the specification, so its accessors return the RFC fields (opt_accessors_spec) *)
Theorem typed_ctor_ok k s r : typed_ctor k s = NOk r ->
  r = s /\ (k <> KUnknownOpt -> opt_shape_ok k s /\ opt_accessors k s = Ok (opt_view k s)).
Proof.
  intros H. assert (Hs : ctor_shape k s) by (apply typed_ctor_accept_iff; eauto).
  split.
  - rewrite typed_ctor_eq in H.
    destruct k; cbn [typed_ctor_spec] in H;
      unfold link_layer_ctor, prefix_ctor, redirected_ctor, mtu_ctor, unknown_ctor in H;
      repeat match type of H with
             | (if ?c then _ else _) = _ => destruct c; try discriminate H
             end; now injection H.
  - intros Hk. destruct Hs as (ty & lu & tl & -> & Ht & H0 & Hl & Hf).
    assert (S : opt_shape_ok k (ty :: lu :: tl)).
    { exists ty, lu, tl. repeat split; auto.
      destruct k; cbn [kind_type_ok] in Ht; try subst ty; try reflexivity. now destruct Hk. }
    split; [exact S|now apply opt_accessors_spec].
Qed.

(* a constructor never reaches one of its unwraps / indexing out of range *)
Theorem typed_ctor_no_ub k s n : typed_ctor k s <> NUB n.
Proof.
  rewrite typed_ctor_eq.
  destruct k; cbn [typed_ctor_spec];
    unfold link_layer_ctor, prefix_ctor, redirected_ctor, mtu_ctor, unknown_ctor;
    repeat match goal with
           | |- (if ?c then _ else _) <> _ => destruct c
           end; discriminate.
Qed.
